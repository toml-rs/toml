(* Props/C13.v — property C13: every decoding and encoding route gives the same answer.
   Statements only; proofs in Proofs/Routes*.v (on top of the C07 development, Proofs/SerdeRT*.v).

   Level: the TOML value tree.  A decoding route is a function of (type, tree the text parses to)
   (Model/SerdeRoutes.v `decode`); which tree a text parses to, and that from_str / from_slice /
   from_document / Deserializer::from_str hand the SAME tree to toml_edit's deserializer, is below this
   level (C01-C03; compared on the implementation by lib/props/c13.py on every run).
     edit family   t e esl edoc eim efs tvd evd : de_value
     value family  tval tvdval : to_toml_value then tv_de;   ttab : to_toml_table then tv_de *)
From TV Require Import Base.Prelude Model.SerNum Spec.SerdeData Model.Ser Model.De Model.SerdeRoutes Proofs.RoutesRefuted
  Proofs.RoutesConv Proofs.RoutesTwins Proofs.RoutesTop Proofs.RoutesDecode Extract.Show.
Require Import String.

(* ---- all decoding routes yield equal results whenever they succeed ----
   twin_ty: no map keyed by `char` (the model's strings are arbitrary bytes; on ill-formed UTF-8 two keys
   could decode to one char).  plain_root: needed only where str::parse::<toml::Table> is involved — the
   root is a table with distinct keys not starting with the private tunnel key. *)
Theorem C13_twin_deserializers : forall ty x y v1 v2,
  twin_ty ty = true -> to_toml_value x = Ok y -> de_value ty x = Ok v1 -> tv_de ty y = Ok v2 -> sval_eq v1 v2.
Proof. intros ty x y v1 v2. exact (twins_agree_ok ty x y v1 v2). Qed.
Print Assumptions C13_twin_deserializers.

Theorem C13_decode_routes : forall ty x r1 r2 v1 v2,
  twin_ty ty = true ->
  (uses_table_route r1 = true \/ uses_table_route r2 = true -> plain_root x = true) ->
  decode r1 ty x = Ok v1 -> decode r2 ty x = Ok v2 -> sval_eq v1 v2 \/ sval_eq v2 v1.
Proof. exact decode_routes_agree. Qed.
Print Assumptions C13_decode_routes.

(* ---- on text obtained by serializing a value of the target type every route succeeds and returns it ----
   (The three defects that made this false are repaired in /repo: C13-tryinto-datetime-string,
   C13-tryfrom-datetime-table, C13-valueser-root-tuple-variant; their witnesses are kept below as
   positive statements.)  What remains excluded is the in-band signalling F14 (`tunnel_free`: no table
   key spells the private tunnel name). *)
Theorem C13_on_serialized_datetime :
  has_type dt_val dt_ty /\ ser_toml_root dt_ty dt_val = Ok dt_tree
  /\ to_toml_value dt_tree = Ok dt_tree /\ to_toml_table dt_tree = Ok dt_tree
  /\ forall r, decode r dt_ty dt_tree = Ok dt_val.
Proof. exact on_serialized_datetime. Qed.
Print Assumptions C13_on_serialized_datetime.

(* a String target does not get the text of a date-time, on any route *)
Theorem C13_datetime_is_not_a_string :
  forall r, decode r (TStruct (str "S") [(str "d", TStr)]) dt_tree = Err EDe.
Proof. exact datetime_is_not_a_string. Qed.
Print Assumptions C13_datetime_is_not_a_string.

(* on the document toml::to_string writes, every toml_edit-based route returns the value, for every type;
   the routes through toml::Value / toml::Table too (date-times included) when no table key spells the
   private tunnel name *)
Theorem C13_on_serialized : forall ty v out, has_type v ty -> ser_toml_root ty v = Ok out ->
  (forall r, edit_family r = true -> exists v', decode r ty out = Ok v' /\ sval_eq v v')
  /\ (tunnel_free out = true ->
      forall r, r = R_tval \/ r = R_ttab -> exists v', decode r ty out = Ok v' /\ sval_eq v v').
Proof. exact on_serialized_doc. Qed.
Print Assumptions C13_on_serialized.

(* ... and on the text of a single value (toml::ser::ValueSerializer), for every type *)
Theorem C13_on_serialized_value : forall ty v x,
  has_type v ty -> ser_value_text ty v = Ok x ->
  (forall r, r = R_tvd \/ r = R_evd -> exists v', decode r ty x = Ok v' /\ sval_eq v v')
  /\ (tunnel_free x = true -> exists v', decode R_tvdval ty x = Ok v' /\ sval_eq v v').
Proof. exact on_serialized_value. Qed.
Print Assumptions C13_on_serialized_value.

(* the witness of the repaired defect C13-valueser-root-tuple-variant: E::T(1, 2) is written as { T = [1, 2] } and reads back *)
Theorem C13_value_text_tuple_variant :
  has_type tvr_val tvr_ty
  /\ ser_value_text tvr_ty tvr_val = Ok (VTab [(str "T", VArr [VInt 1; VInt 2])])
  /\ ser_value_text tvr_ty tvr_val = ser_value tvr_ty tvr_val
  /\ decode R_tvd tvr_ty (VTab [(str "T", VArr [VInt 1; VInt 2])]) = Ok tvr_val
  /\ decode R_evd tvr_ty (VTab [(str "T", VArr [VInt 1; VInt 2])]) = Ok tvr_val
  /\ decode R_tvdval tvr_ty (VTab [(str "T", VArr [VInt 1; VInt 2])]) = Ok tvr_val.
Proof. exact on_serialized_value_tuple_variant. Qed.
Print Assumptions C13_value_text_tuple_variant.

(* the witness of the repaired C06-root-datetime-printed-as-table: a Datetime at the ROOT of
   toml::ser::ValueSerializer is written as the date-time (before: as the table { "$__toml_private_datetime" = ".." })
   and read back by the three single-value routes; at the root of a document it is refused by toml::to_string as by
   toml_edit::ser::to_string (a document is a table); Value::try_from yields the date-time; Table::try_from
   refuses it as a non-table, also behind Some / a newtype struct (before: the private-key table). *)
Theorem C13_root_datetime :
  has_type rdt_val rdt_ty
  /\ ser_value_text rdt_ty rdt_val = Ok (VDatetime dt_d) /\ ser_value rdt_ty rdt_val = Ok (VDatetime dt_d)
  /\ tv_ser rdt_ty rdt_val = Ok (VDatetime dt_d)
  /\ ser_toml_root rdt_ty rdt_val = Err (EUnsupportedType None) /\ ser_edit_root rdt_ty rdt_val = Err (EUnsupportedType None)
  /\ (forall r, r = R_tvd \/ r = R_evd \/ r = R_tvdval -> decode r rdt_ty (VDatetime dt_d) = Ok rdt_val)
  /\ tv_ser_table rdt_ty rdt_val = Err (EUnsupportedType None)
  /\ tv_ser_table (TOpt rdt_ty) (SSome rdt_val) = Err (EUnsupportedType None)
  /\ tv_ser_table (TNewtype (str "W") rdt_ty) (SNewtype rdt_val) = Err (EUnsupportedType None).
Proof. exact root_datetime. Qed.
Print Assumptions C13_root_datetime.

(* ---- Value::try_from / Table::try_from against serialize-then-parse, date-times included ---- *)
Theorem C13_try_from_datetime :
  ser_toml_root dt_ty dt_val = Ok dt_tree /\ to_toml_value dt_tree = Ok dt_tree
  /\ tv_ser dt_ty dt_val = Ok dt_tree /\ tv_ser_table dt_ty dt_val = Ok dt_tree.
Proof. exact try_from_datetime. Qed.
Print Assumptions C13_try_from_datetime.

(* the same tree (same key order), for every type including those containing date-times, when no table
   key of the serialized document spells the private tunnel name *)
Theorem C13_try_from : forall ty v out,
  has_type v ty -> ser_toml_root ty v = Ok out -> tunnel_free out = true ->
  exists y, to_toml_value out = Ok y /\ to_toml_table out = Ok y /\ tv_ser ty v = Ok y
            /\ (forall y', tv_ser_table ty v = Ok y' -> y' = y).
Proof. exact try_from_is_parsed_text. Qed.
Print Assumptions C13_try_from.

(* the twin serializers below the root: ValueSerializer's tree, read as a toml::Value, is Value::try_from's *)
Theorem C13_twin_serializers : forall ty v x,
  has_type v ty -> ser_value ty v = Ok x -> tunnel_free x = true ->
  exists y, to_toml_value x = Ok y /\ tv_ser ty v = Ok y.
Proof. intros ty v x. exact (try_from_twin ty v x). Qed.
Print Assumptions C13_twin_serializers.

(* ---- the converse: try_from accepts nothing serialize-then-parse refuses ----
   (The defect that made this false, C07-tryfrom-nested-none-dropped, is repaired in /repo: Value::try_from /
   Table::try_from answered Ok, with a field dropped, where to_string answers Err(unsupported None).)
   doc_keys: no map key type is `char` / `Option<_>` — keys Value::try_from accepts by contract (whatever serializes to
   a string) and a document serializer does not. *)
Theorem C13_try_from_same_verdict : forall ty v, has_type v ty -> doc_keys ty = true ->
  ((exists y, tv_ser ty v = Ok y) <-> (exists x, ser_value ty v = Ok x)).
Proof. exact try_from_same_verdict. Qed.
Print Assumptions C13_try_from_same_verdict.

(* ... and on success the trees are the same *)
Theorem C13_try_from_accepts_only_serializable : forall ty v y,
  has_type v ty -> doc_keys ty = true -> tv_ser ty v = Ok y ->
  exists x, ser_value ty v = Ok x /\ (tunnel_free x = true -> to_toml_value x = Ok y).
Proof. exact try_from_accepts_only_serializable. Qed.
Print Assumptions C13_try_from_accepts_only_serializable.

Theorem C13_table_try_from_accepts_only_serializable : forall ty v y,
  has_type v ty -> doc_keys ty = true -> tv_ser_table ty v = Ok y -> exists x, ser_value ty v = Ok x.
Proof. exact table_try_from_accepts_only_serializable. Qed.
Print Assumptions C13_table_try_from_accepts_only_serializable.

(* ---- non-vacuity ---- *)
(* struct Cfg { m: BTreeMap<String, Vec<En>>, o: Option<Point>, t: En, w: Wrap(u8), c: char }   (no date-time) *)
Definition ex_en : ty :=
  TEnum (str "En") [(str "U", VUnit); (str "N", VNewtype (TInt TI64)); (str "T", VTuple [TBool; TStr]);
                    (str "S", VStruct [(str "a", TOpt (TInt TI32)); (str "b", TInt TU64)])].
Definition ex_point : ty := TStruct (str "Point") [(str "y", TInt TI32); (str "x", TInt TI32)].
Definition ex_ty : ty :=
  TStruct (str "Cfg") [(str "m", TMap TStr (TSeq ex_en)); (str "o", TOpt ex_point); (str "t", ex_en);
                       (str "w", TNewtype (str "Wrap") (TInt TU8)); (str "c", TChar)].
Definition ex_val : sval :=
  SRec [SMap [(SStr (str "k2"), SSeq [SVariant 0 SUnit; SVariant 3 (SRec [SNone; SInt 7])]); (SStr (str "k1"), SSeq [])];
        SSome (SRec [SInt 1; SInt (-2)]); SVariant 2 (SSeq [SBool true; SStr (str "x y")]); SNewtype (SInt 255); SChar 233].

Example C13_ex_hyps : has_type ex_val ex_ty /\ twin_ty ex_ty = true /\ doc_keys ex_ty = true
  /\ match ser_toml_root ex_ty ex_val with Ok out => tunnel_free out && plain_root out | Err _ => false end = true.
Proof. repeat split; vm_compute; reflexivity. Qed.

(* the hypotheses of C13_on_serialized / C13_try_from hold of the date-time witness too *)
Example C13_ex_datetime_hyps : has_type dt_val dt_ty /\ twin_ty dt_ty = true
  /\ match ser_toml_root dt_ty dt_val with Ok out => tunnel_free out && plain_root out | Err _ => false end = true.
Proof. repeat split; vm_compute; reflexivity. Qed.

(* the document order is m (k2, k1), o (y, x), t, w, c; the toml::Value is sorted; both families read it back
   (the table route returns the map in key order: equal up to the order of map entries) *)
Definition ex_val_sorted : sval :=
  SRec [SMap [(SStr (str "k1"), SSeq []); (SStr (str "k2"), SSeq [SVariant 0 SUnit; SVariant 3 (SRec [SNone; SInt 7])])];
        SSome (SRec [SInt 1; SInt (-2)]); SVariant 2 (SSeq [SBool true; SStr (str "x y")]); SNewtype (SInt 255); SChar 233].
Example C13_ex_routes :
  exists out, ser_toml_root ex_ty ex_val = Ok out
    /\ decode R_t ex_ty out = Ok ex_val /\ decode R_tval ex_ty out = Ok ex_val_sorted /\ decode R_ttab ex_ty out = Ok ex_val_sorted
    /\ to_toml_value out = tv_ser ex_ty ex_val /\ to_toml_table out = tv_ser_table ex_ty ex_val.
Proof. eexists. split; [vm_compute; reflexivity|]. repeat split; vm_compute; reflexivity. Qed.

(* a mismatching pair: a 3-element array read as a pair — toml_edit's family accepts and ignores the
   rest, toml::Value's refuses; they never succeed with different answers *)
Example C13_ex_disagree_on_success_only :
  decode R_e (TTuple [TInt TI8; TInt TI8]) (VArr [VInt 1; VInt 2; VInt 3]) = Ok (SSeq [SInt 1; SInt 2])
  /\ decode R_tvdval (TTuple [TInt TI8; TInt TI8]) (VArr [VInt 1; VInt 2; VInt 3]) = Err EDe.
Proof. split; vm_compute; reflexivity. Qed.
