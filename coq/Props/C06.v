(* Props/C06.v — Anything built through the API encodes to valid TOML that decodes back.
   Only statements, each closed by `exact`; proofs are in Proofs/BuiltRT*.v.

   Model/Build.v holds the construction API (functions on Model/Tree.v trees, one per Rust
   constructor), the terms `cval` / `citem` that compose them with `eval_*`, the set `Built*` of
   trees they reach (parametrised by the admissible leaves and keys), the abstract tree `abs_*`,
   and `float_text` / `render_*`: std's float printing is an oracle (DESIGN.md 4.4), a float without
   a stored repr is kept as the exact decimal its text denotes and `render_*` hands that text to
   the printer of Model/Encode.v as the float's repr.

   Not in `Built` (and why): an `Item::Table` below an inline table (InlineTable::insert and
   Array::push take a Value; only IndexMut on an inline-table parent can put one there, and the
   printer drops it: DESIGN.md F13), `Item::None`, the formatting switches (set_dotted, set_position,
   decor setters, *_formatted inserts).  Table::set_implicit(true) IS covered (BI_table / BI_aot carry the
   flag; a table marked implicit must still print something below itself, or it vanishes from the text):
   that is what toml's DocumentFormatter produces, see Props/C06toml.v.  One use of the array and decor setters IS
   covered too (BV_array_ml): the multi-line layout the two `pretty` serializers give an array — set_prefix("\n    ") on
   every element, set_trailing("\n"), set_trailing_comma(true) — see Props/C07text.v. *)
From TV Require Import Base.Prelude Base.Utf8 Base.Winnow Gen.Consts.
From TV Require Import Model.Datetime Spec.DatetimeSpec Model.Numbers Model.Tree Model.Parse Model.Document Model.Write Model.Encode Model.Build.
From TV Require Import Proofs.BuiltRTBase Proofs.BuiltRTEncode Proofs.BuiltRTValue Proofs.BuiltRTLeaf Proofs.BuiltRTTop.

(* ---- values --------------------------------------------------------------------------------------
   every value assembled from admissible leaves (`scalar_ok`: UTF-8 strings, i64 integers, floats
   nan / inf / decimals below the overflow threshold, in-range date-times), UTF-8 keys, arrays and
   inline tables nested to any depth below the parser's recursion limit, prints (Display for Value /
   Array / InlineTable) as text that Value::from_str reads back as a value with the same abstract
   tree: same types, same scalars, same keys, same element and key order.
   `top_plain`: the value's own decor prefix prints as nothing (true of every value fresh from a
   constructor; a value taken out of an array keeps the blank Array::push gave it, prints as ` 1`,
   and Value::from_str does not accept a leading blank). *)
Theorem C06_value : forall v,
  BuiltValue scalar_ok key_ok v -> value_depth v < LIMIT -> top_plain v ->
  exists v', parse_value_raw (display_value (render_value float_text v)) = POk v' /\ abs_value v' = abs_value v.
Proof. exact built_value_roundtrip. Qed.
Print Assumptions C06_value.

(* Key::new(k).to_string() is read back by Key::from_str as the key k, for every string k *)
Theorem C06_key : forall k, utf8_valid_b k = true ->
  exists r, parse_key (key_display_repr (key_new k)) = POk (r, k).
Proof. exact key_roundtrip. Qed.
Print Assumptions C06_key.

(* the printer's text for a constructed value is the structural text `txt` between the value's decor:
   no fuel, no dependence on anything but the tree (C06_pure: printing is a function in Gallina by
   construction; on the implementation it is checked by printing twice and printing a clone) *)
Theorem C06_text : forall PS PK v dflt fuel,
  BuiltValue PS PK v -> value_size v < fuel ->
  encode_value fuel (render_value float_text v) dflt = etxt float_text v dflt.
Proof. exact (fun PS PK v dflt fuel H Hf => encode_value_txt float_text PS PK v H fuel dflt Hf). Qed.
Print Assumptions C06_text.

(* ---- the constructors stay inside Built ----------------------------------------------------------
   `cval` (Model/Build.v) composes Value::from, Array::new + push, collect into an Array,
   InlineTable::new + insert (a repeated key replaces the value in place), collect into an inline
   table; whatever such a term evaluates to is a BuiltValue with default decor *)
From TV Require Import Proofs.BuiltRTWF.
Theorem C06_built_value : forall PS PK c, cval_ok PS PK c ->
  BuiltValue PS PK (eval_value c) /\ value_decor (eval_value c) = decor_default.
Proof. exact eval_value_built. Qed.
Print Assumptions C06_built_value.

Theorem C06_value_constructed : forall c,
  cval_ok scalar_ok key_ok c -> value_depth (eval_value c) < LIMIT ->
  exists v', parse_value_raw (display_value (render_value float_text (eval_value c))) = POk v'
             /\ abs_value v' = abs_value (eval_value c).
Proof. exact constructed_value_roundtrip. Qed.
Print Assumptions C06_value_constructed.

(* ---- documents -------------------------------------------------------------------------------------
   a constructed document (Table::new() / DocumentMut::new() root; entries inserted by Table::insert:
   values, tables, arrays of tables, nested to any depth) prints (Display for DocumentMut) as text that
   DocumentMut::from_str accepts and decodes to the same abstract tree — same keys, nesting, types,
   scalars, element order — up to what a TOML document can say at all (`printed_entries`, Model/Build.v):
   in every table the values come before the sub-tables (the values keep their order, the sub-tables
   keep theirs), and an ArrayOfTables without elements has no text (the key disappears).
   Bounds: the parser's recursion limit applies to header paths (`tbl_hdepth`) and values (`tbl_vdepth`). *)
From TV Require Import Proofs.BuiltRTDoc.
Theorem C06_document : forall t,
  BuiltTbl scalar_ok key_ok t -> tbl_hdepth t < LIMIT -> tbl_vdepth t < LIMIT ->
  exists d, parse_document (display_document (render_tbl float_text t) REmpty) = POk d
            /\ abs_tbl (doc_root d) = printed_entries (abs_tbl t).
Proof. exact document_roundtrip. Qed.
Print Assumptions C06_document.

(* the table / array-of-tables / document constructors stay inside Built *)
Theorem C06_built_document : forall PS PK from_table l,
  centries_ok PS PK l -> BuiltTbl PS PK (eval_doc from_table l).
Proof. exact (fun PS PK ft l H => eval_doc_built PS PK ft l H). Qed.
Print Assumptions C06_built_document.

Theorem C06_document_constructed : forall from_table l,
  centries_ok scalar_ok key_ok l ->
  tbl_hdepth (eval_doc from_table l) < LIMIT -> tbl_vdepth (eval_doc from_table l) < LIMIT ->
  exists d, parse_document (display_document (render_tbl float_text (eval_doc from_table l)) REmpty) = POk d
            /\ abs_tbl (doc_root d) = printed_entries (abs_tbl (eval_doc from_table l)).
Proof. exact constructed_document_roundtrip. Qed.
Print Assumptions C06_document_constructed.

(* an in-order check that `printed_entries` only reorders and only drops empty arrays of tables: on a table
   whose values already precede its sub-tables and that holds no empty array of tables it is the identity *)
Example ex_printed_identity :
  let l := [([x61], AVal (AScalar (SInt 1))); ([x62], AVal (AScalar (SBool true)));
            ([x74], ATbl [([x78], AVal (AScalar (SInt 2))); ([x75], ATbl [])]);
            ([x6f], AAot [[([x79], AVal (AScalar (SInt 3)))]; []])] in
  printed_entries l = l.
Proof. reflexivity. Qed.
Example ex_printed_reorders :
  printed_entries [([x74], ATbl []); ([x61], AVal (AScalar (SInt 1))); ([x6f], AAot [])]
  = [([x61], AVal (AScalar (SInt 1))); ([x74], ATbl [])].
Proof. reflexivity. Qed.

(* ---- the hypotheses are satisfiable; nasty values; the depth bound is sharp ------------------------ *)
Definition ex_nasty : cval :=
  CInlInsert
    [([x61], CArrPush [CScalar (SString [x0a; x22; x27; x5c; x00]);                 (* LF, quotation mark, apostrophe, backslash, NUL *)
                       CScalar (SInt (- 2 ^ 63));
                       CScalar (SFloat (FDec true 0 (-1)));                           (* -0.0 *)
                       CScalar (SFloat (FNan true)); CScalar (SFloat (FInf false));
                       CScalar (SFloat (FDec false 5 (-324)));                         (* 5e-324 *)
                       CScalar (SDatetime (mkDT (Some (mkDate 2000 2 29)) None None));
                       CScalar (SDatetime (mkDT None (Some (mkTime 23 59 60 1)) None));
                       CScalar (SBool true); CArrCollect []; CInlCollect []]);
     ([], CInlCollect [([x31], CScalar (SDatetime (mkDT (Some (mkDate 1979 5 27)) (Some (mkTime 7 32 0 500000000)) (Some (OffCustom (-420))))))]);
     ([x61], CScalar (SString []))].                                                  (* the key `a` again: replaced in place *)

Example ex_nasty_ok : cval_ok scalar_ok key_ok ex_nasty.
Proof. repeat (constructor; cbn; try reflexivity; try (split; reflexivity)). Qed.

Example ex_nasty_text :
  display_value (render_value float_text (eval_value ex_nasty))
  = [x7b; x20; x61; x20; x3d; x20; x22; x22; x2c; x20; x22; x22; x20; x3d; x20; x7b; x20; x31; x20; x3d; x20]
    ++ [x31; x39; x37; x39; x2d; x30; x35; x2d; x32; x37; x54; x30; x37; x3a; x33; x32; x3a; x30; x30; x2e; x35; x2d; x30; x37; x3a; x30; x30]
    ++ [x20; x7d; x20; x7d].                 (* { a = <empty string>, <empty key> = { 1 = 1979-05-27T07:32:00.5-07:00 } } *)
Proof. vm_compute. reflexivity. Qed.

Definition ex_array : cval :=
  CArrPush [CScalar (SString [x0a; x22; x27; x5c; x00]); CScalar (SInt (- 2 ^ 63)); CScalar (SFloat (FDec true 0 (-1)));
            CScalar (SFloat (FNan true)); CScalar (SFloat (FDec false 5 (-324)));
            CScalar (SDatetime (mkDT (Some (mkDate 2000 2 29)) None None));
            CInlInsert [([x64], CScalar (SDatetime (mkDT (Some (mkDate 2000 2 29)) None None)))];   (* a date before ` }` *)
            CArrCollect [CInlCollect []]].
Example ex_array_roundtrip :
  exists v', parse_value_raw (display_value (render_value float_text (eval_value ex_array))) = POk v'
             /\ abs_value v' = abs_value (eval_value ex_array).
Proof. eexists. split; vm_compute; reflexivity. Qed.

(* the multi-line layout of an array (Pretty::visit_array_mut): elements behind a line break and four blanks, a comma
   after each, the closing bracket on its own line; nested, inside an inline table, empty *)
Definition ex_ml (es : list value) : value :=
  VArray (map (fun e => IValue (ml_elem e)) es) (RExplicit [x0a]) true decor_default None.
Definition ex_ml_value : value :=
  ex_ml [value_from (SInt 1);
         ex_ml [value_from (SString [x61]); value_from (SBool true)];
         VInline (mk_inline_items [([x6b], ex_ml []); ([x6c], ex_ml [value_from (SInt 2)])]) REmpty false false decor_default None].
Example ex_ml_built : BuiltValue scalar_ok key_ok ex_ml_value.
Proof.
  assert (D : decor_built decor_default) by (split; left; reflexivity).
  repeat first [apply BV_array_ml | apply BV_inline | apply BV_scalar | apply Forall_cons | apply Forall_nil
               | apply NoDup_cons | apply NoDup_nil | exact D | exact I | reflexivity
               | (intros [H|[]]; discriminate H) | (intros []) ].
Qed.
Example ex_ml_text :
  display_value (render_value float_text ex_ml_value)
  = [x5b; x0a] ++ [x20; x20; x20; x20; x31; x2c; x0a]
    ++ [x20; x20; x20; x20; x5b; x0a; x20; x20; x20; x20; x22; x61; x22; x2c; x0a; x20; x20; x20; x20; x74; x72; x75; x65; x2c; x0a; x5d; x2c; x0a]
    ++ [x20; x20; x20; x20; x7b; x20; x6b; x20; x3d; x20; x5b; x0a; x5d; x2c; x20; x6c; x20; x3d; x20; x5b; x0a; x20; x20; x20; x20; x32; x2c; x0a; x5d; x20; x7d; x2c; x0a]
    ++ [x5d].
Proof. vm_compute. reflexivity. Qed.
Example ex_ml_roundtrip :
  exists v', parse_value_raw (display_value (render_value float_text ex_ml_value)) = POk v'
             /\ abs_value v' = abs_value ex_ml_value.
Proof. eexists. split; vm_compute; reflexivity. Qed.

(* nesting: 79 levels are read back, 80 are printed but refused by the parser's recursion limit *)
Fixpoint nest (n : nat) (c : cval) : cval := match n with O => c | S n' => CArrPush [nest n' c] end.
Example ex_depth_79 :
  exists v', parse_value_raw (display_value (eval_value (nest 79 (CScalar (SInt 1))))) = POk v'
             /\ abs_value v' = abs_value (eval_value (nest 79 (CScalar (SInt 1)))).
Proof. eexists. split; vm_compute; reflexivity. Qed.
Example ex_depth_80_refused :
  value_depth (eval_value (nest 80 (CScalar (SInt 1)))) = LIMIT /\
  exists e at_, parse_value_raw (display_value (eval_value (nest 80 (CScalar (SInt 1))))) = PErr e at_.
Proof. split; [reflexivity|]. eexists. eexists. vm_compute. reflexivity. Qed.

(* a value taken out of an array keeps the blank Array::push gave it and does not parse alone *)
Example ex_not_top_plain :
  let v := value_decorate_str (value_from (SInt 1)) [x20] [] in
  BuiltValue scalar_ok key_ok v /\ display_value v = [x20; x31] /\
  exists e at_, parse_value_raw (display_value v) = PErr e at_.
Proof.
  cbv zeta. split; [constructor; [reflexivity|split; [right; right|right]; reflexivity]|].
  split; [reflexivity|]. eexists. eexists. vm_compute. reflexivity.
Qed.

(* a document with a value after a sub-table, a table holding only sub-tables, arrays of tables inside arrays
   of tables, an empty array of tables, nasty keys, a repeated key *)
Definition ex_doc : list (bytes * citem) :=
  [([x78], CValue (CScalar (SInt 1)));
   ([x74], CTable [([x73; x75; x62], CTable [([x64; x65; x65; x70], CTable [])]); ([x2e], CTable [])]);
   ([], CValue (CScalar (SString [x0a])));                                              (* empty key, after a table *)
   ([x61], CAot [[([x62], CAot [[([x63], CValue (CScalar (SFloat (FDec false 15 (-1)))))]; []]); ([x76], CValue ex_array)]; []]);
   ([x65], CAot []);                                                                    (* dropped by the printer *)
   ([x31; x39; x37; x39; x2d; x30; x35; x2d; x32; x37], CTable [([x78], CValue (CInlInsert [([x20], CScalar (SBool false))]))]);
   ([x78], CValue (CScalar (SInt 2)))].                                                 (* x again: replaced in place *)

Example ex_doc_ok : centries_ok scalar_ok key_ok ex_doc.
Proof. split; repeat (constructor; cbn; try reflexivity; try (split; reflexivity)). Qed.

Example ex_doc_roundtrip :
  exists d, parse_document (display_document (render_tbl float_text (eval_doc false ex_doc)) REmpty) = POk d
            /\ abs_tbl (doc_root d) = printed_entries (abs_tbl (eval_doc false ex_doc))
            /\ map fst (abs_tbl (doc_root d)) = [[x78]; []; [x74]; [x61]; [x31; x39; x37; x39; x2d; x30; x35; x2d; x32; x37]].
Proof. eexists. split; [vm_compute; reflexivity|]. split; vm_compute; reflexivity. Qed.

(* table nesting: header paths of 79 keys are read back, 80 are refused (recursion limit on key paths) *)
Fixpoint nest_tbl (n : nat) (c : citem) : citem := match n with O => c | S n' => CTable [([x74], nest_tbl n' c)] end.
From TV Require Import Proofs.BuiltRTDocParse.
Lemma nest_tbl_ok n : centries_ok scalar_ok key_ok [([x74], nest_tbl n (CTable []))].
Proof.
  split; [repeat constructor|]. constructor; [|constructor].
  induction n as [|n IH]; apply CI_table; repeat constructor. exact IH.
Qed.
Example ex_tbl_depth_79 :
  exists d, parse_document (display_document (eval_doc false [([x74], nest_tbl 78 (CTable []))]) REmpty) = POk d
            /\ abs_tbl (doc_root d) = abs_tbl (eval_doc false [([x74], nest_tbl 78 (CTable []))]).
Proof.
  apply document_roundtrip_plain; [vm_compute; reflexivity|vm_compute; reflexivity| | |].
  - apply C06_built_document, nest_tbl_ok.
  - apply Nat.ltb_lt. vm_compute. reflexivity.
  - apply Nat.ltb_lt. vm_compute. reflexivity.
Qed.
(* the text of 80 levels is that of 79 levels, a blank line and the header of 80 keys *)
Example ex_tbl_depth_80_refused :
  tbl_hdepth (eval_doc false [([x74], nest_tbl 79 (CTable []))]) = LIMIT /\
  exists e at_, parse_document (display_document (eval_doc false [([x74], nest_tbl 79 (CTable []))]) REmpty) = PErr e at_.
Proof.
  split; [reflexivity|].
  assert (E : display_document (eval_doc false [([x74], nest_tbl 79 (CTable []))]) REmpty
              = display_document (render_tbl float_text (eval_doc false [([x74], nest_tbl 78 (CTable []))])) REmpty
                ++ x0a :: line_txt float_text (LHeader false (repeat [x74] 80))) by (vm_compute; reflexivity).
  rewrite E. apply document_deep_header.
  - apply C06_built_document, nest_tbl_ok.
  - apply Nat.ltb_lt. vm_compute. reflexivity.
  - apply Nat.ltb_lt. vm_compute. reflexivity.
  - discriminate.
  - apply Forall_forall. intros k Hk. apply repeat_spec in Hk. rewrite Hk. reflexivity.
  - rewrite repeat_length. apply le_n.
Qed.
