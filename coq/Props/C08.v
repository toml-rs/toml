(* Props/C08.v — Edits change exactly what was asked and keep everything else verbatim.

   Model: Model/Edit.v — `apply o root` transcribes, Rust function by Rust function, what the public
   API call behind the operation `o` does to the document tree (Model/Tree.v, after `into_mut`);
   `None` = the call is not offered at that place or panics.  Reference: Spec/EditSpec.v — `abs`
   forgets all formatting (decor, reprs, spans, flags except the dotted bit) and `spec_apply` is the
   operation on the plain ordered tree, written from the API documentation with positional list
   functions.

   First the TREE-level half of the property (content, order, verbatim reprs and printed fragments).
   The TEXT-level half ("the printed document is valid TOML and re-parses to the edited data") is
   false of the faithful model on the classes of trees refuted below (C06-table-in-inline,
   C08-empty-container-vanishes, C08-unpositioned-element-misplaced; C08-key-decor-in-header is
   repaired in /repo); under the side conditions that exclude them it is proved in the last part,
   against the WF backbone (Spec/WF.v, Props/WFbackbone.v).  The oracle of lib/props/c08.py checks
   it on the implementation after every step. *)
From TV Require Import Base.Prelude Spec.Ordered Model.Tree.
From TV Require Import Spec.EditSpec Model.Edit Proofs.ContainersOrder Proofs.EditRefine Proofs.EditVerbatim Proofs.EditWF Proofs.EditText.
From TV Require Import Gen.Consts Model.Encode.
From Coq Require Import Sorting.Permutation.

(* ---- decoded content ------------------------------------------------------------------ *)

(* every applicable operation (all 17 constructors of `op`) changes the content exactly as specified *)
Theorem C08_step_content : forall t o t',
  apply o t = Some t' -> abs t' = spec_apply o (abs t).
Proof. exact step_content. Qed.
Print Assumptions C08_step_content.

(* any history; operations that are not applicable when their turn comes are skipped (as the
   harness does) and `applied_ops` is the list of those that were applied *)
Theorem C08_history_content : forall ops t,
  abs (apply_all ops t) = spec_apply_all (applied_ops ops t) (abs t).
Proof. exact history_content. Qed.
Print Assumptions C08_history_content.

Theorem C08_history_content_all : forall ops t t',
  apply_seq ops t = Some t' -> abs t' = spec_apply_all ops (abs t).
Proof. exact history_content_all. Qed.
Print Assumptions C08_history_content_all.

(* ---- order ---------------------------------------------------------------------------- *)
(* `abs` maps the entries of every table / array in storage order (it is a `map`), so
   C08_step_content is a statement about order too: the order of the edited tree is the order
   `spec_apply` produces.  What that order is: *)

Theorem C08_order_abs : forall t, tab_keys (abs t) = map (fun kv => k_key (fst kv)) (t_items t).
Proof. exact abs_keeps_order. Qed.
Print Assumptions C08_order_abs.

(* insert / replace: an existing key keeps its position, a new key goes last, the key then holds
   the new value and every other key holds what it held.  (`e_get k l <> Some PNone`: the key does
   not hold a bare `Item::None` placeholder — true of every document reached from a parsed one, see
   C08_step_wf; such a placeholder counts as absent: C08_order_insert_placeholder.) *)
Theorem C08_order_insert : forall k x l, e_get k l <> Some PNone ->
  map fst (e_put k x l) = match e_get k l with Some _ => map fst l | None => map fst l ++ [k] end
  /\ e_get k (e_put k x l) = Some x
  /\ forall k2, bytes_eqb k2 k = false -> e_get k2 (e_put k x l) = e_get k2 l.
Proof.
  intros k x l H. repeat split; [apply e_put_keys; exact H|apply e_put_get_same|intros; apply e_put_get_other; assumption].
Qed.
Print Assumptions C08_order_insert.

(* a key that only holds a placeholder is new: the placeholder is forgotten, the entry goes last
   (the repair of C16-placeholder-residue: Table::insert / entry / IndexMut drop it first) *)
Theorem C08_order_insert_placeholder : forall k x l, e_get k l = Some PNone ->
  e_put k x l = e_put0 k x (e_del k l).
Proof. exact e_put_placeholder. Qed.
Print Assumptions C08_order_insert_placeholder.

(* remove: the surviving entries keep their relative order and values *)
Theorem C08_order_remove : forall k l,
  map fst (e_del k l) = del_first k (map fst l)
  /\ forall k2, bytes_eqb k2 k = false -> e_get k2 (e_del k l) = e_get k2 l.
Proof. intros k l. split; [apply e_del_keys|intros; apply e_del_get_other; assumption]. Qed.
Print Assumptions C08_order_remove.

(* sort: the same entries, in ascending key order *)
Theorem C08_order_sort : forall l,
  Permutation (e_sort l) l /\ sorted_by (fun a b => key_leb (fst a) (fst b) = true) (e_sort l).
Proof. intro l. split; [apply e_sort_perm|apply e_sort_sorted]. Qed.
Print Assumptions C08_order_sort.

(* sort_values_by (comparators `scmp`: keys descending / by rank with ties; `il` = the table is an
   inline table, whose closure sees values only): the same entries, in the comparator's order, and STABLE — a class
   of entries the comparator ties pairwise (for `CRank`: all non-integers; integers of one value) keeps its order *)
Theorem C08_order_sort_by : forall c il l,
  Permutation (Spec.Ordered.stable_sort (scmp_le c il) l) l
  /\ sorted_by (fun a b => scmp_le c il a b = true) (Spec.Ordered.stable_sort (scmp_le c il) l)
  /\ forall p : bytes * plain -> bool, (forall a b, p a = true -> p b = true -> scmp_le c il a b = true) ->
                filter p (Spec.Ordered.stable_sort (scmp_le c il) l) = filter p l.
Proof.
  intros c il l. split; [apply sort_by_perm|]. split; [apply sort_by_sorted|].
  intros p H. apply stable_sort_stable. exact H.
Qed.
Print Assumptions C08_order_sort_by.

(* the instance of C08_step_content, spelled out: the caller's comparator orders the table at p AND, recursively,
   the dotted tables of the same kind below it (spec_sort_by) *)
Theorem C08_sort_by_content : forall p c t t',
  apply (OSortBy p c) t = Some t' -> abs t' = spec_at p (spec_sort_by c) (abs t).
Proof. intros p c t t' H. exact (step_content t (OSortBy p c) t' H). Qed.
Print Assumptions C08_sort_by_content.

(* array insert: the elements before the index and from the index on keep their order around the new one *)
Theorem C08_order_array_insert : forall (i : nat) (x : plain) l, i <= length l ->
  firstn i (v_ins i x l) = firstn i l /\ nth_error (v_ins i x l) i = Some x /\ skipn (S i) (v_ins i x l) = skipn i l.
Proof. intros i x l. apply v_ins_spec. Qed.
Print Assumptions C08_order_array_insert.

(* ---- verbatim --------------------------------------------------------------------------- *)
(* `entry_repr t p` (Proofs/EditVerbatim.v) = the key stored for the entry at path p — its spelling
   (repr), its leaf decor and its dotted decor — together with the entry's OWN formatting: value repr
   and value decor, array decor / trailing / trailing comma, inline-table decor / preamble, table header
   decor / flags / position; the children are left out (they are entries of their own).
   `untouched o p`: p is not the entry the operation edits nor inside it — for insert / replace /
   remove / the conversions: the entry of that key and everything below it; for array replace / remove:
   that element; for fmt: the reformatted container and its direct children; for `doc[..] = x`: the
   assigned entry and everything below it; push, insert and sort touch no existing entry.
   `reloc o p`: where the entry is afterwards (array insert / remove shift the later elements).
   (`snd e <> INone`: a placeholder left by `&mut doc[k]` is not an entry.)

   Every untouched entry is IDENTICAL in the new tree: same key repr, key decor, value repr, value decor. *)
Theorem C08_verbatim : forall t o t' p e,
  apply o t = Some t' -> untouched o p = true ->
  entry_repr t p = Some e -> snd e <> INone ->
  entry_repr t' (reloc o p) = Some e.
Proof. exact step_verbatim. Qed.
Print Assumptions C08_verbatim.

Theorem C08_history_verbatim : forall ops t t' p e,
  apply_seq ops t = Some t' -> untouched_all ops p = true ->
  entry_repr t p = Some e -> snd e <> INone ->
  entry_repr t' (reloc_all ops p) = Some e.
Proof. exact history_verbatim. Qed.
Print Assumptions C08_history_verbatim.

(* no operation leaves an `Item::None` placeholder behind: on documents reached from a parsed one
   (where `no_none (abs t) = true`, see ex_no_none below) the side condition `snd e <> INone` above
   and the constructor PNone of the plain tree never matter *)
Theorem C08_step_wf : forall t o t',
  apply o t = Some t' -> no_none (abs t) = true -> no_none (abs t') = true.
Proof. exact step_no_none. Qed.
Print Assumptions C08_step_wf.

Theorem C08_history_wf : forall ops t,
  no_none (abs t) = true -> no_none (abs (apply_all ops t)) = true.
Proof. exact history_no_none. Qed.
Print Assumptions C08_history_wf.

(* ---- from identical reprs to identical printed bytes (Proofs/EditText.v) -------------------
   `doc_frag t p` reads off the tree what Model/Encode.v prints for the entry at path p:
     FLine kp v     a key/value line: the stored keys of the dotted tables above it inside its section
                    and its own key (repr + decor each), and the WHOLE value (repr, decor, everything inside)
     FHead hp d a   a [header] / [[header]] line: the stored keys from the root, the header decor, is_array
   `entry_fragment kp v` / `header_text hp d a first` are the bytes Encode.v prints for them (the body
   loop and the header of visit_table).  `untouched_frag o p head`: the entry is not the edited one,
   not inside it, and (for a line) the edit is not inside its value. *)

(* (b) an applicable operation leaves the fragment of every untouched entry identical *)
Theorem C08_fragment : forall t o t' p e,
  apply o t = Some t' -> doc_frag t p = Some e -> untouched_frag o p (is_head e) = true ->
  doc_frag t' (reloc_frag o p) = Some e.
Proof. exact step_fragment. Qed.
Print Assumptions C08_fragment.

Theorem C08_history_fragment : forall ops t t' p e,
  apply_seq ops t = Some t' -> doc_frag t p = Some e -> untouched_frag_all ops p (is_head e) = true ->
  doc_frag t' (reloc_frag_all ops p) = Some e.
Proof. exact history_fragment. Qed.
Print Assumptions C08_history_fragment.

(* (a) the printed document is the concatenation, section by section in printing order
   (`doc_sections`: nested_tables, positions assigned, stably sorted), of the section's header
   fragment and the entry fragments of its lines (`section_text`) *)
Theorem C08_print_sections : forall root trailing,
  display_document root trailing
  = decor_prefix (t_decor root) (fst DEFAULT_ROOT_DECOR)
    ++ sections_text (doc_sections root) true
    ++ decor_suffix (t_decor root) (snd DEFAULT_ROOT_DECOR)
    ++ raw_encode trailing [].
Proof. exact display_document_sections. Qed.
Print Assumptions C08_print_sections.

(* every line fragment of a tree is printed; every header fragment is printed unless the table is
   implicit and has no key/value line (Encode.v prints no header then) *)
Theorem C08_line_printed : forall t p kp v trailing,
  doc_frag t p = Some (FLine kp v) -> infix (entry_fragment kp v) (display_document t trailing).
Proof. exact line_printed. Qed.
Print Assumptions C08_line_printed.

Theorem C08_header_printed : forall t p hp d arr trailing,
  doc_frag t p = Some (FHead hp d arr) ->
  exists sec, t_decor sec = d /\
    (arr = true \/ t_implicit sec && no_lines sec = false ->
     exists first, infix (header_text hp d arr first) (display_document t trailing)).
Proof. exact header_printed. Qed.
Print Assumptions C08_header_printed.

(* together: the text printed after an edit (after any applicable history) contains, byte for byte,
   the line of every key/value entry the edit does not touch — comments, whitespace, the literal
   spelling of key and value *)
Theorem C08_verbatim_text : forall t o t' p kp v trailing trailing',
  apply o t = Some t' -> doc_frag t p = Some (FLine kp v) -> untouched_frag o p false = true ->
  infix (entry_fragment kp v) (display_document t trailing) /\
  infix (entry_fragment kp v) (display_document t' trailing').
Proof. exact verbatim_text. Qed.
Print Assumptions C08_verbatim_text.

Theorem C08_history_verbatim_text : forall ops t t' p kp v trailing trailing',
  apply_seq ops t = Some t' -> doc_frag t p = Some (FLine kp v) -> untouched_frag_all ops p false = true ->
  infix (entry_fragment kp v) (display_document t trailing) /\
  infix (entry_fragment kp v) (display_document t' trailing').
Proof. exact history_verbatim_text. Qed.
Print Assumptions C08_history_verbatim_text.

(* What this part does not give at text level:
   - for headers the analogue of C08_verbatim_text follows from C08_fragment + C08_header_printed only
     up to the `first` flag (default "\n" before a header without explicit decor depends on whether a
     table was printed before: header_text_explicit shows the bytes do not depend on it when the decor
     is explicit, as for every parsed header) and up to visibility (an implicit table that loses its
     last line loses its header line: class C08-empty-container-vanishes);
   - the fragments occur in the text ("infix"); that they occur in the same relative ORDER is given by
     C08_print_sections + the order theorems only for lines of one section, not stated as one theorem;
   - "the printed text is valid TOML and re-parses to abs t'" (the print/parse round trip, C06) — false
     on the classes refuted below; under side conditions that exclude them: C08_text_roundtrip_closed. *)

(* ---- examples: a parsed document with comments ------------------------------------------ *)
From TV Require Import Model.Document Model.Encode Extract.Show.
Require Import String.

Definition ex_src : bytes := str "# top
a = 1 # one
b = [ 1 , 2 ]
[t] # header
k = { x = 1 }
".

Definition ex_root : option tbl :=
  match parse_document ex_src with
  | POk d => tbl_despan ex_src (doc_root d)
  | _ => None
  end.

Definition ex_print (o : list op) : option bytes :=
  match ex_root with
  | Some r => Some (display_document (apply_all o r) REmpty)
  | None => None
  end.

Example ex_parses : match ex_root with Some _ => True | None => False end.
Proof. vm_compute. exact I. Qed.

(* insert a key, remove another, push onto an array: the rest of the text is untouched *)
Example ex_edit :
  ex_print [OInsert [] (str "c") (PVStr (str "hi")); ORemove [] (str "a"); OArrPush [SKey (str "b")] (PVBool true)]
  = Some (str "b = [ 1 , 2 , true]
c = ""hi""
[t] # header
k = { x = 1 }
").
Proof. vm_compute. reflexivity. Qed.

(* ... and the content is what the reference says *)
Example ex_content :
  match ex_root with
  | Some r =>
    abs (apply_all [OInsert [] (str "c") (PVInt 5); OArrRemove [SKey (str "b")] 0; OSort [SKey (str "t"); SKey (str "k")]] r)
    = PTab false false
           [(str "a", PScalar (SInt 1)); (str "b", PArr false [PScalar (SInt 2)]);
            (str "t", PTab false false [(str "k", PTab true false [(str "x", PScalar (SInt 1))])]);
            (str "c", PScalar (SInt 5))]
  | None => False
  end.
Proof. vm_compute. reflexivity. Qed.

(* an operation that is not offered: pushing onto something that is not an array *)
Example ex_not_applicable :
  match ex_root with Some r => applicable (OArrPush [SKey (str "a")] (PVInt 1)) r = false | None => False end.
Proof. vm_compute. reflexivity. Qed.

(* the hypotheses of C08_verbatim are satisfiable: the entry `a` (with its comment) while `c` is
   inserted, `b[1]` while `b[0]` is removed (it moves to index 0) *)
Example ex_untouched :
  untouched (OInsert [] (str "c") (PVInt 1)) [SKey (str "a")] = true
  /\ untouched (OArrRemove [SKey (str "b")] 0) [SKey (str "b"); SIdx 1] = true
  /\ reloc (OArrRemove [SKey (str "b")] 0) [SKey (str "b"); SIdx 1] = [SKey (str "b"); SIdx 0]
  /\ untouched (OInsert [] (str "a") (PVInt 1)) [SKey (str "a")] = false
  /\ untouched (OFmt [SKey (str "t")]) [SKey (str "t"); SKey (str "k")] = false
  /\ untouched (OFmt [SKey (str "t")]) [SKey (str "t"); SKey (str "k"); SKey (str "x")] = true.
Proof. vm_compute. repeat split; reflexivity. Qed.

Example ex_entry_repr :
  match ex_root with
  | Some r =>
    entry_repr r [SKey (str "a")]
    = Some (Some (mkKey (str "a") (Some (RExplicit (str "a")))
                        (mkDecor (Some (RExplicit (str "# top
"))) (Some (RExplicit (str " ")))) (mkDecor (Some REmpty) (Some REmpty))),
            IValue (VScalar (SInt 1) (Some (RExplicit (str "1")))
                            (mkDecor (Some (RExplicit (str " "))) (Some (RExplicit (str " # one"))))))
  | None => False
  end.
Proof. vm_compute. reflexivity. Qed.

Example ex_no_none : match ex_root with Some r => no_none (abs r) = true | None => False end.
Proof. vm_compute. reflexivity. Qed.

(* ---- the text-level half is FALSE of the faithful model on three classes of trees; a fourth is repaired ----
   (findings; each witness is replayed on the real code by lib/props/c08.py: WITNESSES) *)

(* parse, into_mut, apply the operations (all applicable), print *)
Definition edited (s : bytes) (ops : list op) : option tbl :=
  match parse_document s with
  | POk d => match tbl_despan s (doc_root d) with Some r => apply_seq ops r | None => None end
  | _ => None
  end.
Definition printed (s : bytes) (ops : list op) : option bytes :=
  match edited s ops with Some r => Some (display_document r REmpty) | None => None end.

(* (known finding C08-key-decor-in-header, repaired in /repo: "fix: write a key's comments in front of the table
   header") `Item::into_table` stored back in the slot (likewise `doc["c"] = table()`) keeps the stored key, whose
   leaf decor holds the comment line above the entry; before the repair the header was printed as
   `[# c<newline>c ]`, which is not valid TOML.  The comment is written in front of the header: the text is valid
   and keeps the comment. *)
Theorem C08_key_comment_moves_in_front_of_header :
  exists s ops txt d2, printed s ops = Some txt /\ parse_document txt = POk d2 /\
    txt = str "# c
[c ]
x = 1
".
Proof.
  eexists (str "# c
c = { x = 1 }
"), [OIntoTable [] (str "c")], _, _.
  split; [vm_compute; reflexivity|]. split; [vm_compute; reflexivity|]. reflexivity.
Qed.
Print Assumptions C08_key_comment_moves_in_front_of_header.

(* C06-table-in-inline (DESIGN.md F13): a table assigned under an inline-table parent is dropped by
   the printer — the text is valid TOML but its content is not the edited content *)
Theorem C08_text_content_refuted_table_in_inline :
  exists s ops r txt d2,
    edited s ops = Some r /\ printed s ops = Some txt /\ parse_document txt = POk d2 /\
    abs (doc_root d2) <> abs r.
Proof.
  eexists (str "t = {a = 1}
"), [OISet [str "t"; str "x"] IPTable; OISet [str "t"; str "x"; str "y"] (IPValue (PVInt 1))], _, _, _.
  split; [vm_compute; reflexivity|]. split; [vm_compute; reflexivity|]. split; [vm_compute; reflexivity|].
  intro H. vm_compute in H. discriminate H.
Qed.
Print Assumptions C08_text_content_refuted_table_in_inline.

(* C08-empty-container-vanishes: a dotted table left without key/value lines (likewise an implicit
   table without sub-tables, an array of tables without elements) has no spelling and disappears *)
Theorem C08_text_content_refuted_empty_container :
  exists s ops r txt d2,
    edited s ops = Some r /\ printed s ops = Some txt /\ parse_document txt = POk d2 /\
    abs (doc_root d2) <> abs r.
Proof.
  eexists (str "a.b = 1
"), [ORemove [SKey (str "a")] (str "b")], _, _, _.
  split; [vm_compute; reflexivity|]. split; [vm_compute; reflexivity|]. split; [vm_compute; reflexivity|].
  intro H. vm_compute in H. discriminate H.
Qed.
Print Assumptions C08_text_content_refuted_empty_container.

(* C08-unpositioned-element-misplaced: an array-of-tables element pushed through the API has no
   doc_position; after sort_values has reordered the sub-tables of the previous element the new
   `[[c]]` header is printed before `[c.a]`, which thereby moves to the new element *)
Theorem C08_text_content_refuted_unpositioned_element :
  exists s ops r txt d2,
    edited s ops = Some r /\ printed s ops = Some txt /\ parse_document txt = POk d2 /\
    abs (doc_root d2) <> abs r.
Proof.
  eexists (str "[[c]]
[[c.b]]
[c.a]
x = 1
"), [OAotPush [SKey (str "c")]; OSort [SKey (str "c"); SIdx 0]], _, _, _.
  split; [vm_compute; reflexivity|]. split; [vm_compute; reflexivity|]. split; [vm_compute; reflexivity|].
  intro H. vm_compute in H. discriminate H.
Qed.
Print Assumptions C08_text_content_refuted_unpositioned_element.

(* the fragment of the entry `a` of the example document is its line with the comment above it and
   the comment after it; inserting `c` leaves it untouched *)
Example ex_fragment :
  match ex_root with
  | Some r =>
    match doc_frag r [SKey (str "a")] with
    | Some (FLine kp v) => entry_fragment kp v = str "# top
a = 1 # one
"
    | _ => False
    end
  | None => False
  end
  /\ untouched_frag (OInsert [] (str "c") (PVInt 1)) [SKey (str "a")] false = true
  /\ untouched_frag (OArrPush [SKey (str "b")] (PVInt 1)) [SKey (str "b")] false = false
  /\ untouched_frag (OInsert [SKey (str "t")] (str "z") (PVInt 1)) [SKey (str "t")] true = true.
Proof. vm_compute. repeat split; reflexivity. Qed.

Example ex_header_fragment :
  match ex_root with
  | Some r =>
    match doc_frag r [SKey (str "t")] with
    | Some (FHead hp d arr) => header_text hp d arr false = str "[t] # header
"
    | _ => False
    end
  | None => False
  end.
Proof. vm_compute. reflexivity. Qed.

(* ==== the text half, part 2: the edit operations preserve the WF backbone (Spec/WF.v) ==================
   WF root := t_dotted root = false /\ tbl_wf true root /\ tbl_lim 0 0 root /\ order_ok root.
   `step_side o t` = `wf_side o t && lim_side o t && order_side o t`, a decidable predicate on (operation, tree):
     wf_side    per operation (Proofs/EditWFText.v); it is where the known classes of C08 live:
                  - keys created through the API are UTF-8, payload strings are UTF-8 and integers fit i64 (`pv_ok`);
                  - `doc[..] = table()` only directly under a table, never under an existing or auto-vivified
                    inline table (`iset_side`: class C06-table-in-inline);
                  - a table edited by insert-table / remove / a conversion / IndexMut stays at least as visible
                    (`vis_side`: a table that had a key/value line of its own or a header written for or below it
                    still has one of the two — a dotted table may trade its last line for a header below it,
                    ex_side_line_for_header), an array of tables keeps an element, a dotted inline table keeps an entry
                    (class C08-empty-container-vanishes);
                  - make_value: no dotted inline table below the converted table (`mv_good`);
                  - no condition at all for insert of a value, the array operations, ArrayOfTables::push,
                    sort_values and fmt;
     lim_side   the RESULT is within the implementation limits (`tbl_lim_b`, proved sound here);
     order_side the RESULT's positions are in order (`order_b`, proved sound here: class
                C08-unpositioned-element-misplaced); the array operations and fmt can never break it (C08_order_free). *)
From TV Require Import Spec.WF Proofs.WFBool Proofs.EditWFTextBase Proofs.EditWFTextOps Proofs.EditWFText.

(* tbl_wf alone, under the operation's own side condition; the root keeps its flags *)
Theorem C08_step_tbl_wf : forall t o t',
  tbl_wf true t -> apply o t = Some t' -> wf_side o t = true ->
  tbl_wf true t' /\ t_dotted t = t_dotted t'.
Proof. intros t o t' Hw H Hs. destruct (step_tbl_wf t o t' Hw H Hs) as [H1 (H2 & _)]. auto. Qed.
Print Assumptions C08_step_tbl_wf.

Theorem C08_step_wf_text : forall t o t', WF t -> apply o t = Some t' -> step_side o t = true -> WF t'.
Proof. exact step_WF. Qed.
Print Assumptions C08_step_wf_text.

Theorem C08_order_free : forall o t t',
  order_free o = true -> apply o t = Some t' -> order_ok t -> order_ok t'.
Proof. exact order_free_ok. Qed.
Print Assumptions C08_order_free.

(* sort_values / sort_values_by move whole entries, the positions of the sections with them: on a TABLE their side
   condition for order_ok is `order_side` (the check of the result); on an INLINE table nothing can break *)
Theorem C08_sort_inline_order : forall o p t t',
  sort_path o = Some p -> node_sat p is_value_node (ITable t) = true ->
  apply o t = Some t' -> order_ok t -> order_ok t'.
Proof. exact sort_inline_order_ok. Qed.
Print Assumptions C08_sort_inline_order.

(* Model/Edit.v defines sort_values_by on association lists with distinct keys (the IndexMap invariant; used by the
   verbatim theorems only).  Every well-formed node has it: there sort_values_by is defined exactly where sort_values is *)
Theorem C08_sort_by_defined : forall cm c i, iwf c i -> (op_sort_by cm i = None <-> op_sort i = None).
Proof. exact op_sort_by_defined. Qed.
Print Assumptions C08_sort_by_defined.

Theorem C08_history_wf_text : forall ops t t',
  WF t -> apply_seq ops t = Some t' -> history_side ops t = true -> WF t'.
Proof. exact history_WF. Qed.
Print Assumptions C08_history_wf_text.

(* ---- the round trip of edited documents, CLOSED against the WF backbone (Props/WFbackbone.v) ----
   The backbone's `WF_print_parse` concludes `abs_doc d = abs_doc_of t` (Spec/Defs.v trees of data).  That is
   not `abs (doc_root d) = abs t`: `abs` keeps the storage order of every table, while the text of a standard
   table has all its key/value lines in front of its sub-tables (ex_roundtrip_exact_refuted below: a value
   inserted behind `[t]` is printed in front of it and parses back in front of it).  The closed statement is
   about the DATA (Spec/Syntax.v `dval`; kinds and the inline / dotted flags forgotten on both sides):
     data_of x     the data of a plain tree in storage order          C08_bridge_parsed:  = tree_dval (abs_doc d)
     text_data x   the same, each standard table key/value lines first (a table made of dotted keys counts as a
                   line while a line is left in it, as a section once it is only mentioned by the headers below it),
                   empty arrays of tables / placeholders dropped      C08_bridge_printed: = tree_dval (abs_doc_of t)
   and `lines_first x` decides that the two coincide (C08_lines_first). *)
From TV Require Import Spec.Syntax Proofs.GrammarBase Proofs.WFTree Proofs.WFReparse Proofs.EditTextClose.

Theorem C08_bridge_parsed : forall d, tree_dval (abs_doc d) = data_of (abs (doc_root d)).
Proof. exact data_of_parsed. Qed.
Print Assumptions C08_bridge_parsed.

Theorem C08_bridge_printed : forall t, tree_dval (abs_doc_of t) = text_data (abs t).
Proof. exact text_data_abs_doc_of. Qed.
Print Assumptions C08_bridge_printed.

Theorem C08_lines_first : forall t, lines_first (abs t) = true -> text_data (abs t) = data_of (abs t).
Proof. exact lines_first_data. Qed.
Print Assumptions C08_lines_first.

(* no premise but WF of the start, the operations' own side conditions: the text printed after the history
   parses, and to the data of the edited tree = the data the reference computes *)
Theorem C08_text_roundtrip_closed : forall ops t t',
  WF t -> apply_seq ops t = Some t' -> history_side ops t = true ->
  exists d, parse_document (display_document t' REmpty) = POk d
            /\ data_of (abs (doc_root d)) = text_data (abs t')
            /\ data_of (abs (doc_root d)) = text_data (spec_apply_all ops (abs t)).
Proof. exact text_roundtrip_closed. Qed.
Print Assumptions C08_text_roundtrip_closed.

(* ... in storage order when the reference's result stores no key/value line behind a sub-table *)
Theorem C08_text_roundtrip_exact_order : forall ops t t',
  WF t -> apply_seq ops t = Some t' -> history_side ops t = true ->
  lines_first (spec_apply_all ops (abs t)) = true ->
  exists d, parse_document (display_document t' REmpty) = POk d
            /\ data_of (abs (doc_root d)) = data_of (abs t')
            /\ data_of (abs (doc_root d)) = data_of (spec_apply_all ops (abs t)).
Proof. exact text_roundtrip_exact_order. Qed.
Print Assumptions C08_text_roundtrip_exact_order.

(* documents that were PARSED first (DocumentMut from text): well-formedness of the start is a theorem
   (parse_WF), but for the order of the section positions; the document's own trailing text is kept *)
Theorem C08_parsed_text_roundtrip : forall s d0 t tr ops t',
  parse_document s = POk d0 -> tbl_despan s (doc_root d0) = Some t -> raw_despan s (doc_trailing d0) = Some tr ->
  order_ok t ->
  apply_seq ops t = Some t' -> history_side ops t = true ->
  exists d, parse_document (display_document t' tr) = POk d
            /\ abs_doc d = abs_doc_of t'
            /\ data_of (abs (doc_root d)) = text_data (abs t')
            /\ data_of (abs (doc_root d)) = text_data (spec_apply_all ops (abs t)).
Proof. exact parsed_text_roundtrip. Qed.
Print Assumptions C08_parsed_text_roundtrip.

(* ... and with no premise on the order at all: the side conditions are `wf_side` and `lim_side` only, and the
   definition rules of Spec/Defs.v are run on the sections of the RESULT in the order Display prints them
   (`replay_ok t'`, a closed boolean) *)
Theorem C08_history_slots : forall ops t t',
  (t_dotted t = false /\ tbl_wf true t /\ tbl_lim 0 0 t) -> apply_seq ops t = Some t' -> history_slot_side ops t = true ->
  t_dotted t' = false /\ tbl_wf true t' /\ tbl_lim 0 0 t'.
Proof. exact history_slots. Qed.
Print Assumptions C08_history_slots.

Theorem C08_parsed_text_roundtrip_any_order : forall s d0 t tr ops t',
  parse_document s = POk d0 -> tbl_despan s (doc_root d0) = Some t -> raw_despan s (doc_trailing d0) = Some tr ->
  apply_seq ops t = Some t' -> history_slot_side ops t = true -> replay_ok t' = true ->
  exists d, parse_document (display_document t' tr) = POk d
            /\ abs_doc d = abs_doc_of t'
            /\ data_of (abs (doc_root d)) = text_data (abs t')
            /\ data_of (abs (doc_root d)) = text_data (spec_apply_all ops (abs t)).
Proof. exact parsed_text_roundtrip_any_order. Qed.
Print Assumptions C08_parsed_text_roundtrip_any_order.

(* `replay_ok` holds when sections are interleaved (`[a]`, `[b]`, `[a.c]`: ex_roundtrip_any_order).  It fails when a
   sub-table is printed in front of a key/value line of its parent (`[a.b]` in front of `[a]`): the keys of the
   re-parsed table are then in the order of first mention in the text, which `abs` cannot know (it does not keep
   positions).  Then the same data as UNORDERED tables: `same_data a b := dcanon (DTab a) = dcanon (DTab b)`,
   `dcanon` sorting the entries of every table by key *)
Theorem C08_parsed_text_roundtrip_unordered : forall s d0 t tr ops t',
  parse_document s = POk d0 -> tbl_despan s (doc_root d0) = Some t -> raw_despan s (doc_trailing d0) = Some tr ->
  apply_seq ops t = Some t' -> history_slot_side ops t = true -> replay_unordered_ok t' = true ->
  exists d, parse_document (display_document t' tr) = POk d
            /\ same_data (data_of (abs (doc_root d))) (text_data (abs t'))
            /\ same_data (data_of (abs (doc_root d))) (text_data (spec_apply_all ops (abs t))).
Proof. exact parsed_text_roundtrip_unordered. Qed.
Print Assumptions C08_parsed_text_roundtrip_unordered.

(* ---- the side conditions are satisfiable, and each is needed ---- *)
Definition root_of (s : bytes) : option tbl :=
  match parse_document s with POk d => tbl_despan s (doc_root d) | _ => None end.
Definition on_root {A} (s : bytes) (f : tbl -> A) (dflt : A) : A :=
  match root_of s with Some r => f r | None => dflt end.

(* the example document is well-formed (boolean checker of Proofs/WFBool.v) and ordinary edits meet their side conditions *)
Example ex_sides_hold :
  on_root ex_src wf_b false = true
  /\ on_root ex_src (history_side [OInsert [] (str "c") (PVStr (str "hi")); ORemove [] (str "a");
                                   OArrPush [SKey (str "b")] (PVBool true); OInsertTable [] (str "n");
                                   OSort [SKey (str "t")]; OFmt [SKey (str "t"); SKey (str "k")];
                                   OISet [str "n"; str "x"; str "y"] (IPValue (PVInt 1))]) false = true.
Proof. vm_compute. split; reflexivity. Qed.

(* C06-table-in-inline: a table assigned under an inline table violates wf_side (and WF: "inline tables hold values only") *)
Example ex_side_table_in_inline :
  on_root (str "t = {a = 1}
") (wf_side (OISet [str "t"; str "x"] IPTable)) true = false.
Proof. vm_compute. reflexivity. Qed.

(* C08-empty-container-vanishes: removing the only line of a dotted table, the only element of an array of tables *)
Example ex_side_vanish :
  on_root (str "a.b = 1
") (wf_side (ORemove [SKey (str "a")] (str "b"))) true = false
  /\ on_root (str "[[a]]
x = 1
") (wf_side (OAotRemove [SKey (str "a")] 0)) true = false.
Proof. vm_compute. split; reflexivity. Qed.

(* C08-unpositioned-element-misplaced: the push is fine, the sort breaks the order of the positions *)
Example ex_side_order :
  on_root (str "[[c]]
[[c.b]]
[c.a]
x = 1
") (fun r => (step_side (OAotPush [SKey (str "c")]) r,
              match apply (OAotPush [SKey (str "c")]) r with
              | Some r1 => (wf_side (OSort [SKey (str "c"); SIdx 0]) r1, order_side (OSort [SKey (str "c"); SIdx 0]) r1)
              | None => (false, true)
              end)) (false, (false, true))
  = (true, (true, false)).
Proof. vm_compute. reflexivity. Qed.

(* payloads must be printable: a string that is not UTF-8 has no default repr *)
Example ex_side_payload :
  on_root ex_src (wf_side (OInsert [] (str "c") (PVStr [xff]))) true = false
  /\ on_root ex_src (wf_side (OInsert [] [xff] (PVInt 1))) true = false.
Proof. vm_compute. split; reflexivity. Qed.

(* ---- the closed round trip on examples (closed booleans) ---- *)
Definition reparse_cmp (s : bytes) (ops : list op) (f : tbl -> tbl -> bool) : bool :=
  match root_of s with
  | Some r => match apply_seq ops r with
              | Some r' => match parse_document (display_document r' REmpty) with
                           | POk d => f (doc_root d) r'
                           | _ => false
                           end
              | None => false
              end
  | None => false
  end.
Definition data_eqb (a b : list (bytes * dval)) : bool := dval_eqb (DTab a) (DTab b).

(* `abs (doc_root d) = abs t'` is false: the value `c`, inserted behind `[t]`, parses back in front of it.  The start
   is well-formed, the side conditions hold, the data in storage order differ, the data lines-first agree *)
Example ex_roundtrip_exact_refuted :
  on_root ex_src wf_b false
  && on_root ex_src (history_side [OInsert [] (str "c") (PVInt 5)]) false
  && reparse_cmp ex_src [OInsert [] (str "c") (PVInt 5)]
       (fun r r' => negb (data_eqb (data_of (abs r)) (data_of (abs r')))
                    && data_eqb (data_of (abs r)) (text_data (abs r'))
                    && negb (lines_first (abs r')))
  = true.
Proof. vm_compute. reflexivity. Qed.

(* an edit that stores nothing behind a sub-table: storage order itself comes back *)
Example ex_roundtrip_exact_order :
  reparse_cmp ex_src [ORemove [] (str "a"); OArrPush [SKey (str "b")] (PVBool true); OInsert [SKey (str "t")] (str "c") (PVInt 5)]
       (fun r r' => lines_first (abs r') && data_eqb (data_of (abs r)) (data_of (abs r')))
  = true.
Proof. vm_compute. reflexivity. Qed.

(* a dotted table trades its last key/value line for a header below it: Table::insert("b", table()) at `a` on `a.b = 1`
   (and the same below a header, between two other lines).  A side condition asking every table made of dotted keys for a
   line of its own (`old_vis_side`) would refuse the step; with `vis_side` the step meets its side
   conditions, the result is well-formed, prints `[a.b]` — `a` is a super-table of that header in the text —, and the
   text parses back to the edited data, the line-less dotted table listed among the sections *)
Definition old_vis_side (a b : tbl) : bool := implb (hl a) (hl b) && implb (ph a) (ph b || hl b).
Example ex_side_line_for_header :
  let ops := [OInsertTable [SKey (str "a")] (str "b")] in
  on_root (str "a.b = 1
") (fun r => match r, apply_seq ops r with
             | Tbl [(_, ITable a)] _ _ _ _ _, Some ((Tbl [(_, ITable b)] _ _ _ _ _) as r') =>
               negb (old_vis_side a b) && vis_side a b && negb (has_line b) && prints_header b
               && history_side ops r && wf_b r'
             | _, _ => false
             end) false
  && reparse_cmp (str "a.b = 1
") ops (fun r r' => data_eqb (data_of (abs r)) (text_data (abs r')))
  && on_root (str "[t]
x = 1
a.b = 1
y = 2
") (history_side [OInsertTable [SKey (str "t"); SKey (str "a")] (str "b")]) false
  && reparse_cmp (str "[t]
x = 1
a.b = 1
y = 2
") [OInsertTable [SKey (str "t"); SKey (str "a")] (str "b")]
       (fun r r' => data_eqb (data_of (abs r)) (text_data (abs r')) && negb (data_eqb (data_of (abs r)) (data_of (abs r'))))
  = true.
Proof. vm_compute. reflexivity. Qed.


(* interleaved sections (`[a]`, `[b]`, `[a.c]`): order_ok fails, the replay check of the edited tree holds *)
Definition ex_ops2 : list op := [OInsert [SKey (str "a")] (str "z") (PVInt 3); OInsertTable [] (str "n")].
Example ex_roundtrip_any_order :
  on_root (str "[a]
x = 1
[b]
y = 2
[a.c]
w = 3
") (fun r => negb (order_b r) && history_slot_side ex_ops2 r
             && match apply_seq ex_ops2 r with Some r' => replay_ok r' | None => false end) false
  = true.
Proof. vm_compute. reflexivity. Qed.

(* a sub-table in front of its parent: the strict check fails, the unordered one holds *)
Example ex_roundtrip_unordered :
  on_root (str "[a.b]
x = 1
[a]
y = 2
") (fun r => negb (order_b r) && history_slot_side ex_ops2 r
             && match apply_seq ex_ops2 r with Some r' => negb (replay_ok r') && replay_unordered_ok r' | None => false end) false
  = true.
Proof. vm_compute. reflexivity. Qed.

(* ---- sort_values_by on examples (closed booleans) ---- *)
Definition print_after (s : bytes) (ops : list op) : bytes :=
  match root_of s with
  | Some r => match apply_seq ops r with Some r' => display_document r' REmpty | None => [] end
  | None => []
  end.

(* the comparator reaches the dotted keys (the seeded change C08-sort-values-by-ignores-comparator-dotted sorts them
   ascending); every line keeps its comment *)
Example ex_sort_by_kdesc :
  bytes_eqb
    (print_after (str "version = 1
name = ""x"" # n
dep.mid = 2
dep.zeta = 3 # z
dep.alpha = 1
") [OSortBy [] CKeyDesc])
    (str "version = 1
name = ""x"" # n
dep.zeta = 3 # z
dep.mid = 2
dep.alpha = 1
") = true.
Proof. vm_compute. reflexivity. Qed.

(* by rank: non-integers first (tied: in their old order), then integers by value (1 = 1 tied: `y` stays before `z`);
   in the inline table too, dotted keys included *)
Example ex_sort_by_rank :
  bytes_eqb
    (print_after (str "t = { b = 2, g.y = 1, g.x = ""s"", g.z = 1, a = 2 }
") [OSortBy [SKey (str "t")] CRank])
    (str "t = { g.x = ""s"", g.y = 1, g.z = 1, b = 2, a = 2 }
") = true.
Proof. vm_compute. reflexivity. Qed.

(* the side conditions of sort_values_by hold on the example document, and it is verbatim-untouching everywhere *)
Example ex_sort_by_sides :
  on_root ex_src (history_side [OSortBy [] CKeyDesc; OSortBy [SKey (str "t"); SKey (str "k")] CRank]) false
  && untouched (OSortBy [] CRank) [SKey (str "a")] && untouched_frag (OSortBy [] CRank) [SKey (str "a")] false
  = true.
Proof. vm_compute. reflexivity. Qed.
