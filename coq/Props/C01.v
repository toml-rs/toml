(* Props/C01.v — The parser accepts exactly the valid TOML 1.0.0 documents.
   Layer L0 (byte classes, tokens and ranges of the CURRENT source equal the grammar's) is
   proved here in full; it is re-checked against the regenerated Gen/Consts.v on every run.
   Layer L1 (token-level maximal-munch lemmas) is in Props/C01tokens.v.  The whole-document
   statements C01_sound / C01_complete (DESIGN.md section 6) are in Props/C01doc.v. *)
From TV Require Import Base.Prelude Gen.Consts Spec.Abnf Model.Strings.
From TV Require Import Proofs.ConstsOk.

Theorem C01_classes : forall b,
  in_class WSCHAR b = wschar b /\ in_class NON_EOL b = non_eol b
  /\ in_class BASIC_UNESCAPED b = basic_unescaped b /\ in_class MLB_UNESCAPED b = mlb_unescaped b
  /\ in_class LITERAL_CHAR b = literal_char b /\ in_class MLL_CHAR b = mll_char b
  /\ in_class UNQUOTED_CHAR b = unquoted_key_char b
  /\ in_class DIGIT b = Abnf.digit b /\ in_class DIGIT1_9 b = Abnf.digit1_9 b
  /\ in_class DIGIT0_7 b = Abnf.digit0_7 b /\ in_class DIGIT0_1 b = Abnf.digit0_1 b
  /\ in_class HEXDIG b = Abnf.hexdig b /\ in_class DT_DIGIT b = Abnf.digit b
  /\ in_class TIME_DELIM b = Abnf.time_delim b
  /\ assoc_byte ESCAPE_SIMPLE b = escape_simple b /\ assoc_byte ESCAPE_HEX b = escape_hex b
  /\ in_class VALUE_NUMBER_START b = (byte_eqb b x2b || byte_eqb b x2d || Abnf.digit b).
Proof.
  intro b. repeat split;
    first [ exact (WSCHAR_ok b) | exact (NON_EOL_ok b) | exact (BASIC_UNESCAPED_ok b) | exact (MLB_UNESCAPED_ok b)
          | exact (LITERAL_CHAR_ok b) | exact (MLL_CHAR_ok b) | exact (UNQUOTED_CHAR_ok b) | exact (DIGIT_ok b)
          | exact (DIGIT1_9_ok b) | exact (DIGIT0_7_ok b) | exact (DIGIT0_1_ok b) | exact (HEXDIG_ok b)
          | exact (DT_DIGIT_ok b) | exact (TIME_DELIM_ok b) | exact (ESCAPE_SIMPLE_ok b) | exact (ESCAPE_HEX_ok b)
          | exact (VALUE_NUMBER_START_ok b) ].
Qed.
Print Assumptions C01_classes.

Theorem C01_tokens :
  COMMENT_START_SYMBOL = x23 /\ LF = x0a /\ CR = x0d /\ QUOTATION_MARK = x22 /\ APOSTROPHE = x27 /\ ESCAPE = x5c
  /\ ML_BASIC_STRING_DELIM = [x22; x22; x22] /\ ML_LITERAL_STRING_DELIM = [x27; x27; x27]
  /\ DOT_SEP = x2e /\ KEYVAL_SEP = x3d
  /\ ARRAY_OPEN = x5b /\ ARRAY_CLOSE = x5d /\ ARRAY_SEP = x2c
  /\ INLINE_TABLE_OPEN = x7b /\ INLINE_TABLE_CLOSE = x7d /\ INLINE_TABLE_SEP = x2c
  /\ STD_TABLE_OPEN = x5b /\ STD_TABLE_CLOSE = x5d /\ ARRAY_TABLE_OPEN = [x5b; x5b] /\ ARRAY_TABLE_CLOSE = [x5d; x5d]
  /\ TRUE = t_true /\ FALSE = t_false /\ INF = t_inf /\ NAN = t_nan
  /\ HEX_PREFIX = [x30; x78] /\ OCT_PREFIX = [x30; x6f] /\ BIN_PREFIX = [x30; x62].
Proof. exact tokens_ok. Qed.
Print Assumptions C01_tokens.

Theorem C01_datetime_ranges :
  (DT_MONTH_MIN, DT_MONTH_MAX) = (1, 12)%N /\ (DT_MDAY_MIN, DT_MDAY_MAX) = (1, 31)%N
  /\ (DT_HOUR_MIN, DT_HOUR_MAX) = (0, 23)%N /\ (DT_MINUTE_MIN, DT_MINUTE_MAX) = (0, 59)%N
  /\ (DT_SECOND_MIN, DT_SECOND_MAX) = (0, 60)%N
  /\ (SD_MONTH_MIN, SD_MONTH_MAX) = (1, 12)%N /\ SD_DAY_MIN = 1%N /\ SD_HOUR_MAX = 23%N
  /\ SD_MINUTE_MAX = 59%N /\ SD_SECOND_MAX = 60%N /\ SD_NANO_MAX = 999999999%N
  /\ (SD_OFFSET_HOUR_MAX, SD_OFFSET_MINUTE_MAX) = (23, 59)%N
  /\ DT_SCALE = [0; 100000000; 10000000; 1000000; 100000; 10000; 1000; 100; 10; 1]%N.
Proof. exact datetime_ranges_ok. Qed.
Print Assumptions C01_datetime_ranges.

Theorem C01_float_guard : FLOAT_REJECT_POS_INF = true /\ FLOAT_REJECT_NEG_INF = true.
Proof. exact float_guard_ok. Qed.
Print Assumptions C01_float_guard.
