(* Props/C15serde.v — property C15, serde half: "A deserialization failure (wrong type, missing field,
   unknown variant) carries the span of the offending value when source text is available, and the key
   path otherwise."

   Objects (Model/DeLoc.v, over the span tree Model/SerdeSpanned.v `stree`):
     de_loc c t s     toml_edit's deserializer at type t on the tree s with the error plumbing
                      transcribed (set_span only if none, add_key in next_value_seed, errors the crate
                      creates with a span); c: which structs are deny_unknown_fields, and the seeded
                      change opt_overwrite
     lerr             kind, span (Error::span()), key path (rendered "in `a.b`"), and the GHOST path
                      e_at / e_onkey: the steps from s to the node (or key) the error was raised at
     locate s p k     the span of the node (k: of the key) the path p leads to in s
     all_spans s      every node and every key of s has a span (an ImDocument: source text available)
     despan s         the same tree without any span (DocumentMut, toml::Value)
     ideal_keys p     all keys on the path p;  added_keys p k: the keys of the steps that go through
                      TableMapAccess::next_value_seed (struct fields and map entries) *)
From TV Require Import Base.Prelude Spec.SerdeData Model.De Model.SerdeSpanned.
From TV Require Import Model.DeLoc Proofs.DeLocRefine Proofs.DeLocTop.
Require Import String.
Open Scope string_scope.

(* WITH SOURCE TEXT: whatever the type and however deep the nesting of structs, maps, sequences, tuples,
   options, newtypes and enum variants, the span of the error is the span of the INNERMOST offending
   node — the leaf of the wrong type / out of range, the date-time of the wrong kind, the table lacking
   a field, the array of the wrong length — or of the offending KEY (unknown variant, unknown field).
   The one exception: the kind check of a Date / Time that is the very node de_loc was called on
   (`Date::deserialize` raises it after the deserializer returned, and nobody handed that node out).
   Not claimed for the paths the value model does not follow. *)
Theorem C15_de_located : forall c t s e,
  opt_overwrite c = false -> all_spans s = true -> de_loc c t s = LErr e -> e_kind e <> KUnmodelled ->
  (exists sp, e_span e = Some sp /\ locate s (e_at e) (e_onkey e) = Some (Some sp)) \/
  (e_kind e = KDtKind /\ e_at e = [] /\ e_span e = None).
Proof. exact de_located. Qed.
Print Assumptions C15_de_located.

(* every access that hands a node out (next_value_seed, next_element_seed, newtype_variant_seed,
   deserialize_option, deserialize_newtype_struct) attaches the node's span to an error without one:
   seen from there every error is located, the Date / Time kind check included *)
Theorem C15_de_located_handed_out : forall c t s e,
  opt_overwrite c = false -> all_spans s = true -> wrap (span_of s) (de_loc c t s) = LErr e -> e_kind e <> KUnmodelled ->
  exists sp, e_span e = Some sp /\ locate s (e_at e) (e_onkey e) = Some (Some sp).
Proof. exact de_located_handed_out. Qed.
Print Assumptions C15_de_located_handed_out.

(* WITHOUT SOURCE TEXT: no span, and the key path lists exactly the keys of the struct fields and map
   entries on the way to the offending node *)
Theorem C15_de_keypath : forall c t s e,
  de_loc c t (despan s) = LErr e -> e_span e = None /\ e_keys e = added_keys (e_at e) (e_onkey e).
Proof. exact de_keypath. Qed.
Print Assumptions C15_de_keypath.

(* ... which is the full path to the offending node unless it lies below an enum variant *)
Theorem C15_de_keypath_ideal : forall c t s e,
  de_loc c t (despan s) = LErr e -> below_variant (e_at e) = false -> e_onkey e = false ->
  e_keys e = ideal_keys (e_at e).
Proof. exact de_keypath_ideal. Qed.
Print Assumptions C15_de_keypath_ideal.

(* known finding C15-de-keypath-omits-enum-variant: e = { N = "x" } read as E2::N(i64): the key path
   is `e`, the offending value sits at e.N (TableEnumDeserializer does not add the variant's key) *)
Theorem C15_de_keypath_refuted :
  exists t s e, de_loc cfg0 t (despan s) = LErr e /\ e_kind e = KWrongType /\
                e_keys e = [S' "e"] /\ ideal_keys (e_at e) = [S' "e"; S' "N"].
Proof. exact keypath_refuted. Qed.
Print Assumptions C15_de_keypath_refuted.

(* the key path is the same function of the offending node's path on every tree *)
Theorem C15_de_keypath_any : forall c t s e,
  de_loc c t s = LErr e -> e_keys e = added_keys (e_at e) (e_onkey e).
Proof. exact de_keypath_any. Qed.
Print Assumptions C15_de_keypath_any.

(* THE TWO MODELS AGREE: erasing the locations, de_loc succeeds exactly when the value-level
   deserializer (Model/De.v de_value, the subject of C07 / C13) does, with the same value *)
Theorem C15_de_refines : forall c, nodeny c -> forall t s, tree_ok s = true ->
  lval (de_loc c t s) = rval (de_value t (strip s)).
Proof. exact de_loc_refines. Qed.
Print Assumptions C15_de_refines.

(* Examples *)
(* the seeded change C15-option-span-overwritten is visible to C15_de_located: with the repository's
   plumbing the span is the leaf's, with `deserialize_option` overwriting it is the table's *)
Example C15_option_seed_noticed :
  (exists e, de_loc cfg0 t_optnested w_opt = LErr e /\ e_span e = Some (10, 13)%N /\
             locate w_opt (e_at e) (e_onkey e) = Some (Some (10, 13)%N)) /\
  (exists e, de_loc (mkCfg (fun _ => false) true) t_optnested w_opt = LErr e /\ e_span e = Some (4, 25)%N /\
             locate w_opt (e_at e) (e_onkey e) = Some (Some (10, 13)%N)).
Proof. exact option_seed_noticed. Qed.

Example C15_missing_field :
  (exists e, de_loc cfg0 t_outer w_missing = LErr e /\ e_kind e = KMissing (S' "c") /\ e_span e = Some (4, 13)%N) /\
  (exists e, de_loc cfg0 t_outer (despan w_missing) = LErr e /\ e_span e = None /\ e_keys e = [S' "t"]).
Proof. exact missing_field_example. Qed.

Example C15_deny_unknown_fields :
  exists e, de_loc (mkCfg (fun n => bytes_eqb n (S' "SDeny")) false) t_sdeny w_deny = LErr e /\
            e_kind e = KUnknownField /\ e_span e = Some (6, 8)%N /\ e_onkey e = true /\ e_keys e = [].
Proof. exact deny_example. Qed.

Example C15_enum_payload_span : exists e, de_loc cfg0 t_senum2 w_enum = LErr e /\ e_span e = Some (10, 13)%N.
Proof. exact enum_span_ok. Qed.

(* the former finding C15-de-datekind-span-outer, repaired: v = [1979-05-27, 1979-05-27T07:32:00Z] as
   Vec<Date> and e = { N = 07:32:00 } as N(Date) carry the span of the offending date-time *)
Example C15_date_kind_in_array :
  exists e, all_spans w_dates = true /\ de_loc cfg0 t_vdate w_dates = LErr e /\ e_kind e = KDtKind /\
            locate w_dates (e_at e) (e_onkey e) = Some (Some (17, 37)%N) /\ e_span e = Some (17, 37)%N.
Proof. exact date_kind_located. Qed.
Example C15_date_kind_in_variant :
  exists e, de_loc cfg0 t_e3n w_e3n = LErr e /\ e_kind e = KDtKind /\ e_span e = Some (10, 18)%N.
Proof. exact date_kind_variant_located. Qed.
(* the corner C15_de_located leaves open is real: a Date deserialized directly from a value *)
Example C15_date_kind_at_the_root :
  exists e, de_loc cfg0 (TDatetime KDate) (NLeaf (Some (0, 20)%N) (VDatetime dt_offset)) = LErr e /\
            e_kind e = KDtKind /\ e_at e = [] /\ e_span e = None.
Proof. exact date_kind_root. Qed.
