(* Props/C20.v — property C20: walking a document with the default read-only or mutable
   visitor calls the matching visit method exactly once for every key/value pair, scalar,
   array, inline table, table and array-of-tables element, in document order; an overriding
   visitor that rewrites every scalar of one type changes all of them and nothing else.
   Statements only; the proofs are in Proofs/VisitComplete.v.

   Reading guide.  Model/Visit.v: `visit_document t` is the list of calls (hook, argument) a
   visitor that logs every hook and continues with the default body receives on the tree t;
   `visit_document_mut g t` is the same for VisitMut together with the tree left behind, g
   being what the scalar hooks do.  Spec/Nodes.v: `nodes t` is the preorder listing of the
   document's nodes, `node_at t p` the node at position p, `path_lt` document order,
   `map_scalars g t` the tree with exactly the scalars rewritten.
   Proofs/VisitComplete.v (vocabulary at the top): `node_hook n` is the call of the matching
   hook on n, `hooks_of n` that call together with the dispatching calls made for n
   (visit_value / visit_item / visit_table_like), `expected_log t` = visit_document's own call
   followed by `hooks_of` of every node in document order.

   All statements hold for every tree of type tbl (parsed, built or edited), without any
   well-formedness hypothesis.  (Before finding F11 was repaired in /repo — `impl TableLike for
   InlineTable` yielding `Item::None` placeholders — they needed "no inline table holds a
   placeholder"; C20_placeholder_regression pins the repaired behaviour.) *)
From TV Require Import Base.Prelude Model.Tree Model.Visit Spec.Nodes Proofs.VisitComplete.
Require Import Sorted.

(* the complete call log of the read-only default walk *)
Theorem C20_visit : forall t, visit_document t = expected_log t.
Proof. exact visit_log. Qed.
Print Assumptions C20_visit.

(* the node-level hooks alone: one call of the matching hook per node, in document order *)
Theorem C20_visit_hooks : forall t,
  filter is_node_hook (visit_document t) = map node_hook (nodes t).
Proof. exact visit_hooks. Qed.
Print Assumptions C20_visit_hooks.

(* the default mutable walk makes the same calls and leaves the tree as it was *)
Theorem C20_visit_mut : forall t,
  fst (visit_document_mut hook_default t) = expected_log t
  /\ snd (visit_document_mut hook_default t) = t.
Proof. exact visit_mut_default. Qed.
Print Assumptions C20_visit_mut.

(* overriding the scalar hooks: the tree left behind is the one in which exactly the scalars
   were rewritten, and the walk made the same calls as the read-only one *)
Theorem C20_rewrite : forall g t,
  snd (visit_document_mut g t) = map_scalars g t
  /\ fst (visit_document_mut g t) = visit_document t.
Proof. exact rewrite_scalars. Qed.
Print Assumptions C20_rewrite.

Theorem C20_rewrite_integers : forall f t,
  snd (visit_document_mut (hook_integer f) t) = map_scalars (rw_integer f) t.
Proof. exact rewrite_integers. Qed.
Print Assumptions C20_rewrite_integers.

Theorem C20_rewrite_strings : forall f t,
  snd (visit_document_mut (hook_string f) t) = map_scalars (rw_string f) t.
Proof. exact rewrite_strings. Qed.
Print Assumptions C20_rewrite_strings.

(* "and nothing else": the rewritten document has the same nodes in the same order, each the
   image of the old one; its scalars are the old ones with g applied where g applies *)
Theorem C20_rewrite_nodes : forall g t, nodes (map_scalars g t) = map (map_node g) (nodes t).
Proof. exact rewrite_nodes. Qed.
Print Assumptions C20_rewrite_nodes.

Theorem C20_rewrite_scalar_list : forall g t,
  scalars (map_scalars g t) = map (fun s => match g s with Some s' => s' | None => s end) (scalars t).
Proof. exact rewrite_scalar_list. Qed.
Print Assumptions C20_rewrite_scalar_list.

(* exactly once: there is a duplicate-free list of positions, in document order, containing
   every position of the document, such that the node-level calls are, one for one, the
   matching hook on the node at each of these positions *)
Theorem C20_once : forall t,
  exists ps : list path,
    StronglySorted path_lt ps /\ NoDup ps
    /\ (forall p, In p ps <-> node_at t p <> None)
    /\ map Some (filter is_node_hook (visit_document t))
       = map (fun p => optmap node_hook (node_at t p)) ps.
Proof. exact visit_once. Qed.
Print Assumptions C20_once.

(* F11 regression: on `t = {}` after `doc["t"]["x"]` (an Item::None placeholder inside the
   inline table) no hook is called for the placeholder *)
Theorem C20_placeholder_regression :
  ~ In (MItem, AItem INone) (visit_document placeholder_witness)
  /\ map fst (visit_document placeholder_witness)
     = [MDocument; MTable; MTableLike; MTableLikeKv; MItem; MValue; MInlineTable; MTableLike].
Proof. exact placeholder_not_visited. Qed.
Print Assumptions C20_placeholder_regression.
