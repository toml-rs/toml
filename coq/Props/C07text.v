(* Props/C07text.v — property C07 through real bytes: "serializing a value of a supported shape yields valid TOML
   text from which deserializing the same type gives back an equal value".  Statements only; proofs in
   Proofs/SerDoc*.v.  This composes
     the value-tree level   Model/Ser.v, De.v, SerFmt.v, Props/C07.v (what the serializers build, what the
                                  formatters make of it, what the deserializers read)
     C06's constructed trees      Model/Build.v, Props/C06.v (a constructed toml_edit tree prints as text that parses
                                  back to the same abstract tree)
   through Model/SerDoc.v: `ser_doc`, the toml_edit tree a text route hands to the printer, built FROM SerFmt's layouts;
   `tomlval_of_abs` / `de_doc`, the parsed document read as the value tree the deserializer walks.

   Routes (Model/SerDoc.v troute): toml_edit::ser::to_string / to_string_pretty, toml::to_string / to_string_pretty,
   read back by toml_edit::de::from_str / toml::from_str (both are `de_value` on the root table).  The two pretty
   routes break arrays of two and more elements over lines ("\n    " before every element, a trailing comma,
   "\n" before the bracket): Model/Build.v BV_array_ml.

   Hypotheses, besides `has_type`:
     float_oracle fd back   std's float printing / parsing (DESIGN.md 4.4): `fd b` is the decimal (or nan / inf) the text
                            printed for the f64 pattern b denotes, with a fraction and below the parser's overflow
                            threshold; `back` parses it to b again (to some NaN for a NaN).  Props/C11.v
                            `std_roundtrip_hyp` is the same assumption for the finite non-zero values.
     utf8_ty / utf8_sv      field names, variant names and strings are UTF-8 (Rust's are; the `bytes` of the universe
                            are arbitrary).
     tv_depth out <= LIMIT  the value tree is nested at most LIMIT = 80 deep, the root table counted: every struct, map,
                            sequence, tuple and every enum variant with a payload is one level (a variant: one for
                            its one-entry table plus the payload's own), Option and newtype structs are none.  Both the
                            `[a.b.c]` header paths and the inline values inherit this bound, and the parser refuses
                            anything deeper (C20).  `ty_depth ty <= LIMIT` (read off the type) is sufficient.
   What comes back is the tree that was written up to (1) the order of the entries of a table — the printed form lists
   key/value lines before [sub-tables] — and (2) the payload of a NaN (`tv_equiv`); structs look their fields up by name
   and maps are rebuilt entry by entry from keys that cannot collide, so the deserializer is insensitive to both
   (C07_de_any_order); sequences and tuples are arrays, whose order the text keeps. *)
From TV Require Import Base.Prelude Gen.Consts.
From TV Require Import Model.Numbers Model.Tree Model.Document Model.Encode Model.Build.
From TV Require Import Proofs.BuiltRTValue Proofs.BuiltRTTop.
From TV Require Import Model.SerNum Spec.SerdeData Model.Ser Model.De Model.SerFmt Model.SerDoc.
From TV Require Import Proofs.SerDocDe Proofs.SerDocWf Proofs.SerDocTop.
From TV Require Import Extract.Show Props.C07.
Require Import String.

(* ---- the round trip through text ------------------------------------------------------------------------------ *)
Theorem C07_text_roundtrip : forall fd back, float_oracle fd back -> forall r ty v out,
  has_type v ty -> utf8_ty ty = true -> utf8_sv v = true ->
  ser_text r ty v = SerdeData.Ok out -> tv_depth out <= LIMIT ->
  exists T d v',
    ser_doc fd r ty v = Some T
    /\ parse_document (display_document (render_tbl float_text T) REmpty) = POk d
    /\ de_doc back ty (abs_tbl (doc_root d)) = SerdeData.Ok v' /\ sval_eq v v'.
Proof. exact text_roundtrip_main. Qed.
Print Assumptions C07_text_roundtrip.

(* the same with the nesting bound read off the type *)
Theorem C07_text_roundtrip_by_type : forall fd back, float_oracle fd back -> forall r ty v out,
  has_type v ty -> utf8_ty ty = true -> utf8_sv v = true ->
  ser_text r ty v = SerdeData.Ok out -> ty_depth ty <= LIMIT ->
  exists T d v',
    ser_doc fd r ty v = Some T
    /\ parse_document (display_document (render_tbl float_text T) REmpty) = POk d
    /\ de_doc back ty (abs_tbl (doc_root d)) = SerdeData.Ok v' /\ sval_eq v v'.
Proof. exact text_roundtrip_by_type. Qed.
Print Assumptions C07_text_roundtrip_by_type.

Theorem C07_text_depth_by_type : forall r ty v out,
  ser_text r ty v = SerdeData.Ok out -> tv_depth out <= Nat.max 1 (ty_depth ty).
Proof. exact ser_text_depth. Qed.
Print Assumptions C07_text_depth_by_type.

(* ---- the tree of a text route is a constructed tree; what the text parses to is the tree that was written ---- *)
Theorem C07_text_inverse : forall fd back, float_oracle fd back -> forall r ty v out,
  has_type v ty -> utf8_ty ty = true -> utf8_sv v = true ->
  ser_text r ty v = SerdeData.Ok out -> tv_depth out <= LIMIT ->
  exists T d,
    ser_doc fd r ty v = Some T
    /\ BuiltTbl scalar_ok key_ok T
    /\ parse_document (display_document (render_tbl float_text T) REmpty) = POk d
    /\ abs_tbl (doc_root d) = printed_entries (abs_tbl T)
    /\ tv_equiv out (tomlval_of_abs back (abs_tbl (doc_root d))).
Proof. exact text_inverse. Qed.
Print Assumptions C07_text_inverse.

(* what every serializer output looks like: distinct UTF-8 keys, UTF-8 strings, i64 integers, 64-bit floats, date-times in range *)
Theorem C07_text_output_wf : forall r ty v out,
  has_type v ty -> utf8_ty ty = true -> utf8_sv v = true -> ser_text r ty v = SerdeData.Ok out ->
  out_ok out = true /\ exists es, out = VTab es.
Proof. exact ser_text_out_ok. Qed.
Print Assumptions C07_text_output_wf.

(* ---- the deserializer does not see the order of a table's entries, nor the payload of a NaN ---- *)
Theorem C07_de_any_order : forall ty v out out',
  has_type v ty -> ser_value ty v = SerdeData.Ok out -> tv_equiv out out' ->
  exists v', de_value ty out' = SerdeData.Ok v' /\ sval_eq v v'.
Proof. intros ty v out out'. exact (roundtrip_equiv ty v out out'). Qed.
Print Assumptions C07_de_any_order.

(* ---- the two formatters (toml_edit's Pretty, toml's DocumentFormatter) lay a serialized tree out alike ---- *)
Theorem C07_pretty_layouts_agree : forall es, doc_edit_pretty (VTab es) = doc_toml (VTab es).
Proof. exact pretty_layouts_agree. Qed.
Print Assumptions C07_pretty_layouts_agree.

(* ---- the oracle hypothesis is consistent (non-vacuity; that std satisfies it is the trusted part, DESIGN.md 4.4) ---- *)
Theorem C07_float_oracle_satisfiable : exists fd back, float_oracle fd back.
Proof. exact float_oracle_satisfiable. Qed.
Print Assumptions C07_float_oracle_satisfiable.

(* ---- examples (Props/C07.v: struct Cfg { m: BTreeMap<String, Vec<En>>, o: Option<Point>, n: Option<Point>, t: En,
        d: Datetime, w: Wrap(u8), c: char, x: f32 } with an enum in a sequence in a map, an optional table, a tuple
        variant, a date-time field) ------------------------------------------------------------------------------------
   the one float of the value is 0.1f32, written through its exact widening 0x3fb99999a0000000, which std prints as
   0.10000000149011612 *)
Definition ex_fd (b : N) : fval := if (b =? 4591870180174331904)%N then FDec false 10000000149011612 (-17) else FNan false.
Definition ex_back (f : fval) : N :=
  match f with FDec false 10000000149011612 (-17) => 4591870180174331904%N | _ => 9221120237041090560%N end.
Definition ex_text (r : troute) : bytes :=
  match ser_doc ex_fd r ex_ty ex_val with
  | Some T => display_document (render_tbl float_text T) REmpty
  | None => []
  end.

(* byte for byte what the crates print (harness/src/bin/serde `ser`, routes ep / tp / epp = tpp) *)
Example C07text_ex_edit :
  ex_text EditString
  = str "m = { k1 = [" ++ [x22] ++ str "U" ++ [x22] ++ str ", { N = -5 }, { S = { b = 7 } }], k2 = [] }" ++ [x0a]
    ++ str "o = { x = 1, y = -2 }" ++ [x0a]
    ++ str "t = { T = [true, " ++ [x22] ++ str "x y" ++ [x22] ++ str "] }" ++ [x0a]
    ++ str "d = 1979-05-27T07:32:00.5-07:00" ++ [x0a]
    ++ str "w = 255" ++ [x0a]
    ++ str "c = " ++ [x22] ++ [xc3] ++ [xa9] ++ [x22] ++ [x0a]
    ++ str "x = 0.10000000149011612" ++ [x0a].
Proof. vm_compute. reflexivity. Qed.

Example C07text_ex_toml :
  ex_text TomlString
  = str "d = 1979-05-27T07:32:00.5-07:00" ++ [x0a]
    ++ str "w = 255" ++ [x0a]
    ++ str "c = " ++ [x22] ++ [xc3] ++ [xa9] ++ [x22] ++ [x0a]
    ++ str "x = 0.10000000149011612" ++ [x0a]
    ++ [x0a]
    ++ str "[m]" ++ [x0a]
    ++ str "k1 = [" ++ [x22] ++ str "U" ++ [x22] ++ str ", { N = -5 }, { S = { b = 7 } }]" ++ [x0a]
    ++ str "k2 = []" ++ [x0a]
    ++ [x0a]
    ++ str "[o]" ++ [x0a]
    ++ str "x = 1" ++ [x0a]
    ++ str "y = -2" ++ [x0a]
    ++ [x0a]
    ++ str "[t]" ++ [x0a]
    ++ str "T = [true, " ++ [x22] ++ str "x y" ++ [x22] ++ str "]" ++ [x0a].
Proof. vm_compute. reflexivity. Qed.

Example C07text_ex_pretty :
  ex_text TomlStringPretty
  = str "d = 1979-05-27T07:32:00.5-07:00" ++ [x0a]
    ++ str "w = 255" ++ [x0a]
    ++ str "c = " ++ [x22] ++ [xc3] ++ [xa9] ++ [x22] ++ [x0a]
    ++ str "x = 0.10000000149011612" ++ [x0a]
    ++ [x0a]
    ++ str "[m]" ++ [x0a]
    ++ str "k1 = [" ++ [x0a]
    ++ str "    " ++ [x22] ++ str "U" ++ [x22] ++ str "," ++ [x0a]
    ++ str "    { N = -5 }," ++ [x0a]
    ++ str "    { S = { b = 7 } }," ++ [x0a]
    ++ str "]" ++ [x0a]
    ++ str "k2 = []" ++ [x0a]
    ++ [x0a]
    ++ str "[o]" ++ [x0a]
    ++ str "x = 1" ++ [x0a]
    ++ str "y = -2" ++ [x0a]
    ++ [x0a]
    ++ str "[t]" ++ [x0a]
    ++ str "T = [" ++ [x0a]
    ++ str "    true," ++ [x0a]
    ++ str "    " ++ [x22] ++ str "x y" ++ [x22] ++ str "," ++ [x0a]
    ++ str "]" ++ [x0a]
  /\ ex_text EditStringPretty = ex_text TomlStringPretty.
Proof. split; vm_compute; reflexivity. Qed.

(* each of the four texts parses, and the parsed document deserializes to the value *)
Definition ex_back_ok (r : troute) : bool :=
  match parse_document (ex_text r) with
  | POk d => match de_doc ex_back ex_ty (abs_tbl (doc_root d)) with SerdeData.Ok v' => sval_beq v' ex_val | _ => false end
  | _ => false
  end.
Example C07text_ex_roundtrip :
  ex_back_ok EditString = true /\ ex_back_ok EditStringPretty = true /\ ex_back_ok TomlString = true /\ ex_back_ok TomlStringPretty = true.
Proof. repeat split; vm_compute; reflexivity. Qed.

(* the hypotheses hold of the example *)
Example C07text_ex_hyps :
  utf8_ty ex_ty = true /\ utf8_sv ex_val = true /\ ty_depth ex_ty = 5 /\
  match ser_text TomlString ex_ty ex_val with SerdeData.Ok out => tv_depth out | _ => 0 end = 5.
Proof. repeat split; vm_compute; reflexivity. Qed.

(* what comes back lists `d w c x` before the tables `m o t` although the struct has them in the order m o n t d w c x *)
Example C07text_ex_order :
  match parse_document (ex_text TomlString) with
  | POk d => map fst (abs_tbl (doc_root d))
  | _ => []
  end = [str "d"; str "w"; str "c"; str "x"; str "m"; str "o"; str "t"].
Proof. vm_compute. reflexivity. Qed.

(* the nesting bound is sharp: Vec<Vec<..<i64>..>> in a one-field struct, 79 levels of arrays below the root table are
   read back, 80 are refused by the parser (RecursionLimit) although the serializer wrote them *)
Fixpoint nest_ty (n : nat) : ty := match n with O => TInt TI64 | S n' => TSeq (nest_ty n') end.
Fixpoint nest_val (n : nat) : sval := match n with O => SerdeData.SInt 1 | S n' => SSeq [nest_val n'] end.
Definition nest_text (n : nat) : bytes :=
  match ser_doc ex_fd EditString (TStruct (str "S") [(str "a", nest_ty n)]) (SRec [nest_val n]) with
  | Some T => display_document (render_tbl float_text T) REmpty
  | None => []
  end.
Example C07text_ex_depth :
  ty_depth (TStruct (str "S") [(str "a", nest_ty 79)]) = 80
  /\ (match parse_document (nest_text 79) with POk _ => true | _ => false end) = true
  /\ (match parse_document (nest_text 80) with POk _ => true | _ => false end) = false.
Proof. repeat split; vm_compute; reflexivity. Qed.
