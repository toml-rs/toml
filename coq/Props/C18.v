(* Props/C18.v — Cargo feature choices change performance or ordering only, never results.

   Of the features, only two reach the logic that the model describes: `preserve_order` (toml::Map is an
   IndexMap instead of a BTreeMap) and `unbounded` (RecursionCheck compiled out).  `perf` swaps the string
   representation behind one API (no counterpart in the model), `parse`/`display`/`serde` only remove entry
   points.  The theorems below are the Coq half for `preserve_order`: for EVERY call history the two Map
   configurations (Model/Containers.v, each proved to refine its reference map in ContainersRefine.v) hold the
   same content, answer every call that does not list entries identically, and answer listing calls with
   permutations of each other, ascending by key in the sorted configuration.
   Everything else of C18 — every configuration builds and produces the same verdicts, trees and text on the
   fixed battery — is the correspondence run of lib/props/c18.py (a build result and a differential test, not
   a theorem). *)
From TV Require Import Base.Prelude Spec.Ordered Model.Containers Proofs.MapOrderOnly.
From Coq Require Import Permutation.

Theorem C18_map_same_content : forall h : list mop,
  om_sort_keys (ordered_final h) = sorted_final h /\
  (forall k, im_get k (ordered_final h) = im_get k (sorted_final h)) /\
  length (ordered_final h) = length (sorted_final h) /\
  (forall ks, let oo := pobserve ks (ordered_final h) in let os := pobserve ks (sorted_final h) in
              o_len oo = o_len os /\ o_emp oo = o_emp os /\ o_get oo = o_get os /\ o_ck oo = o_ck os).
Proof. exact map_same_content. Qed.
Print Assumptions C18_map_same_content.

Theorem C18_map_same_outputs : forall h : list mop,
  outs_rel (fun o a b => order_free o = true -> a = b) h
           (snd (run (pstep KMapOrdered) [] h)) (snd (run (pstep KMapSorted) [] h)).
Proof. exact map_same_outputs. Qed.
Print Assumptions C18_map_same_outputs.

Theorem C18_map_iteration_is_a_permutation : forall h : list mop,
  outs_rel (fun o a b => order_free o = false -> out_perm a b /\ out_ascending b) h
           (snd (run (pstep KMapOrdered) [] h)) (snd (run (pstep KMapSorted) [] h)).
Proof. exact map_iteration_permutation. Qed.
Print Assumptions C18_map_iteration_is_a_permutation.

Theorem C18_ref_map_same_outputs : forall h : list mop,
  outs_rel (fun o a b => order_free o = true -> a = b) h
           (snd (run (ref_step KMapOrdered) [] h)) (snd (run (ref_step KMapSorted) [] h)).
Proof. exact ref_map_same_outputs. Qed.
Print Assumptions C18_ref_map_same_outputs.
