(* Props/C02.v — Decoded data is exactly what the document says.
   Proved here: the escape table and the fraction scaling table of the current source denote the
   values the specification assigns (L0, re-checked on every regeneration).  The value halves of the
   token-level lemmas (string contents after escape processing and trimming, integers in four
   bases, the exact decimal of floats) are in Props/C02tokens.v; date-time fields are C12.
   The whole-document statement C02_tree (DESIGN.md section 6) is in Props/C02doc.v. *)
From TV Require Import Base.Prelude Gen.Consts Spec.Abnf Model.Strings.
From TV Require Import Proofs.ConstsOk.

Theorem C02_escape_values : forall b,
  assoc_byte ESCAPE_SIMPLE b = escape_simple b /\ assoc_byte ESCAPE_HEX b = escape_hex b.
Proof. intro b; split; [exact (ESCAPE_SIMPLE_ok b) | exact (ESCAPE_HEX_ok b)]. Qed.
Print Assumptions C02_escape_values.

(* fractional seconds: digit string of length n <= 9 scaled by 10^(9-n) (truncation to nanoseconds) *)
Theorem C02_fraction_scale : forall n, (1 <= n <= 9)%nat -> nth_error DT_SCALE n = Some (10 ^ (9 - N.of_nat n))%N.
Proof.
  intros n H. assert (n = 1 \/ n = 2 \/ n = 3 \/ n = 4 \/ n = 5 \/ n = 6 \/ n = 7 \/ n = 8 \/ n = 9)%nat as Hn by lia.
  intuition; subst; reflexivity.
Qed.
Print Assumptions C02_fraction_scale.
