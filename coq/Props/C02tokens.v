(* Props/C02tokens.v — property C02, layer L1 (value halves): whatever a token parser of the
   model accepts is a text of the corresponding rule of toml.abnf v1.0.0 (Spec/Lex.v,
   Spec/Syntax.v) AND the value it returns is the value the grammar assigns to that text:
   escapes (backslash b t n f r quote backslash, uXXXX and UXXXXXXXX, as the UTF-8 of the named scalar), the
   first-newline trim, the line-ending backslash, 1-2 quotes before a closing delimiter,
   CR LF = LF inside multi-line strings, the four integer bases with sign and underscores
   (Horner value), the exact decimal of a float (sign, all mantissa digits, exponent; sign of
   zero kept), inf / nan signs, date-time fields with the 9-digit truncation, the list of
   decoded keys of a dotted key.  Decoded strings are well-formed UTF-8.
   Statements only; proofs in Proofs/LexEquiv*.v.  The accept / reject halves are in
   Props/C01tokens.v.

   Reading:  splits i t i'   the parser went from input i to i' reading exactly the text t. *)
From TV Require Import Base.Prelude Base.Utf8 Base.Winnow Gen.Consts Spec.Abnf Spec.Lex Spec.Syntax.
From TV Require Import Model.Trivia Model.Strings Model.Datetime Model.Numbers Model.Tree Model.Parse.
From TV Require Import Proofs.LexEquivBase Proofs.LexEquivTrivia Proofs.LexEquivInt Proofs.LexEquivFloat
  Proofs.LexEquivStrings Proofs.LexEquivMlLit Proofs.LexEquivMlBasic Proofs.LexEquivString Proofs.LexEquivUtf8
  Proofs.LexEquivDatetime Proofs.LexEquivKey.

(* ---- trivia ------------------------------------------------------------------------------------ *)
Theorem C02_tok_ws : forall i t i',
  ws i = Ok t i' -> ws_tok t /\ splits i t i' /\ stops wschar (rest i').
Proof. exact ws_sound. Qed.
Print Assumptions C02_tok_ws.

Theorem C02_tok_newline : forall i u i', newline i = Ok u i' -> exists t, newline_tok t /\ splits i t i'.
Proof. exact newline_sound. Qed.
Print Assumptions C02_tok_newline.

Theorem C02_tok_comment : forall i u i',
  comment i = Ok u i' -> exists t, comment_tok t /\ splits i t i' /\ stops non_eol (rest i').
Proof. exact comment_sound. Qed.
Print Assumptions C02_tok_comment.

Theorem C02_tok_ws_comment_newline : forall i u i',
  ws_comment_newline i = Ok u i' -> exists t, wscn_tok t /\ splits i t i'.
Proof. exact wscn_sound. Qed.
Print Assumptions C02_tok_ws_comment_newline.

(* ---- keys ---------------------------------------------------------------------------------------- *)
Theorem C02_tok_unquoted_key : forall i t i',
  unquoted_key i = Ok t i' -> unquoted_key_tok t /\ splits i t i' /\ stops unquoted_key_char (rest i').
Proof. exact unquoted_key_sound. Qed.
Print Assumptions C02_tok_unquoted_key.

(* the decoded key k (and the span kept as the key's repr) *)
Theorem C02_tok_simple_key : forall i rw k i', simple_key i = Ok (rw, k) i' ->
  exists t, simple_key_tok t k /\ splits i t i' /\ rw = raw_with_span (pos i, pos i').
Proof. exact simple_key_sound. Qed.
Print Assumptions C02_tok_simple_key.

(* key = simple-key / dotted-key: the decoded keys in order, fewer than LIMIT of them *)
Theorem C02_tok_key : forall i kp i', key_ i = Ok kp i' ->
  exists w1 t w2, ws_tok w1 /\ key_tok t (map k_key kp) /\ ws_tok w2 /\ splits i (w1 ++ t ++ w2) i'
                  /\ length kp < LIMIT.
Proof. exact key_sound. Qed.
Print Assumptions C02_tok_key.

(* ---- strings ------------------------------------------------------------------------------------- *)
Theorem C02_tok_basic_string : forall i v i', basic_string i = Ok v i' ->
  exists t, basic_string_tok t v /\ splits i t i'.
Proof. exact basic_string_sound. Qed.
Print Assumptions C02_tok_basic_string.

Theorem C02_tok_literal_string : forall i v i', literal_string i = Ok v i' ->
  exists t, literal_string_tok t v /\ splits i t i'.
Proof. exact literal_string_sound. Qed.
Print Assumptions C02_tok_literal_string.

Theorem C02_tok_ml_basic_string : forall i v i', ml_basic_string i = Ok v i' ->
  exists t, ml_basic_string_tok t v /\ splits i t i'.
Proof. exact ml_basic_string_sound. Qed.
Print Assumptions C02_tok_ml_basic_string.

Theorem C02_tok_ml_literal_string : forall i v i', ml_literal_string i = Ok v i' ->
  exists t, ml_literal_string_tok t v /\ splits i t i'.
Proof. exact ml_literal_string_sound. Qed.
Print Assumptions C02_tok_ml_literal_string.

Theorem C02_tok_string : forall i v i', string_ i = Ok v i' -> exists t, string_tok t v /\ splits i t i'.
Proof. exact string_sound. Qed.
Print Assumptions C02_tok_string.

(* the value of every string of the grammar is well-formed UTF-8 (escapes name scalar values only) *)
Theorem C02_tok_string_utf8 : forall t v, string_tok t v -> utf8_valid_b v = true.
Proof. exact string_value_valid. Qed.
Print Assumptions C02_tok_string_utf8.

(* the reading of `non-ascii` in Spec/Abnf.v: well-formed texts are exactly the sequences of ASCII
   bytes and UTF-8 encodings of the scalar values %x80-D7FF / %xE000-10FFFF *)
Theorem C02_tok_non_ascii : forall s, utf8_valid_b s = true <-> utf8_chars s.
Proof. exact non_ascii_bytes_ok. Qed.
Print Assumptions C02_tok_non_ascii.

(* ---- booleans ------------------------------------------------------------------------------------ *)
Theorem C02_tok_boolean : forall i b i',
  (true_ <|> false_) i = Ok b i' -> exists t, boolean_tok t b /\ splits i t i'.
Proof. exact boolean_sound. Qed.
Print Assumptions C02_tok_boolean.

Theorem C02_tok_true : forall i b i', true_ i = Ok b i' -> b = true /\ splits i t_true i'.
Proof. exact true_sound. Qed.
Print Assumptions C02_tok_true.

Theorem C02_tok_false : forall i b i', false_ i = Ok b i' -> b = false /\ splits i t_false i'.
Proof. exact false_sound. Qed.
Print Assumptions C02_tok_false.

(* ---- integers ------------------------------------------------------------------------------------ *)
(* the value is the positional value of the digits in the base of the prefix, negated by "-";
   accepted values fit i64 *)
Theorem C02_tok_integer : forall i z i', integer i = Ok z i' ->
  exists t, integer_tok t z /\ splits i t i' /\ in_i64 z = true.
Proof. exact integer_sound. Qed.
Print Assumptions C02_tok_integer.

(* ---- floats -------------------------------------------------------------------------------------- *)
(* the value is the exact decimal written (FDec sign mantissa exponent10), or inf / nan with sign *)
Theorem C02_tok_float : forall i f i', float i = Ok f i' -> exists t, float_tok t f /\ finite f /\ splits i t i'.
Proof. exact float_sound. Qed.
Print Assumptions C02_tok_float.

(* the text handed to Rust's str::parse::<f64> (after removing the underscores) denotes exactly
   that decimal: sign, integer digits, fraction digits, exponent *)
Theorem C02_tok_float_exact : forall s neg ipd frd eo,
  float_parts s neg ipd frd eo -> fdec_of_text (remove_us s) = fval_of neg ipd frd eo.
Proof. exact fdec_exact. Qed.
Print Assumptions C02_tok_float_exact.

Theorem C02_tok_float_text : forall i s i', float_ i = Ok s i' ->
  splits i s i' /\ exists neg m e, float_tok s (FDec neg m e) /\ fdec_of_text (remove_us s) = FDec neg m e.
Proof. exact float__exact. Qed.
Print Assumptions C02_tok_float_text.

(* ---- date-times ---------------------------------------------------------------------------------- *)
(* the fields are the decimal values of the digit groups; the fraction is truncated to nine
   digits (nanoseconds); the offset is in minutes with its sign, "Z" / "z" is UTC *)
Theorem C02_tok_date_time : forall i d i', date_time i = Ok d i' -> exists t, date_time_tok t d /\ splits i t i'.
Proof. exact date_time_sound. Qed.
Print Assumptions C02_tok_date_time.
