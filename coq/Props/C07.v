(* Props/C07.v — property C07: serde serialization never loses data: it round-trips or returns an
   error.  Statements only; proofs in Proofs/SerdeRT*.v.

   Level: the TOML value tree (Spec/SerdeData.v `tomlval`).  Printing a tree as text and parsing
   it back is C03/C06 (documents), C10 (strings, keys), C11 (numbers), C12 (date-times).
   Universe: Spec/SerdeData.v `ty` / `sval` / `has_type` (structs, maps, sequences, tuples,
   newtypes, tuple structs, options, the four kinds of enum variant, every integer width, f32/f64,
   bool, char, strings, the three date-time types, unit and unit structs as unsupported shapes).
   Oracle (trusted, checked on every run by the harness command `fidelity`): the calls
   `#[derive(Serialize, Deserialize)]` makes for each shape, as written into Model/Ser.v, De.v. *)
From TV Require Import Base.Prelude Model.Datetime Model.SerNum Spec.SerdeData Model.Ser Model.De Model.SerFmt
  Proofs.SerdeRTBase Proofs.SerdeRT Proofs.SerdeRTErr Proofs.SerdeRTRoot Proofs.SerdeRTRefuse
  Proofs.SerdeRTTryFrom Proofs.SerdeRTTv Proofs.SerdeRTFmt Proofs.SerdeRTRoutes Extract.Show.
Require Import String.

(* ---- toml_edit's ValueSerializer / ValueDeserializer: the core of all five text / document routes ---- *)

(* whatever is serialized without an error reads back as an equal value *)
Theorem C07_roundtrip_value : forall ty v out,
  has_type v ty -> ser_value ty v = Ok out -> exists v', de_value ty out = Ok v' /\ sval_eq v v'.
Proof. intros ty v out. exact (roundtrip_value ty v out). Qed.
Print Assumptions C07_roundtrip_value.

(* an error names a documented unsupported shape that the value contains *)
Theorem C07_errors_documented : forall ty v e,
  has_type v ty -> ser_value ty v = Err e -> unsupported CElem ty v e.
Proof. intros ty v e. exact (errors_documented ty v e). Qed.
Print Assumptions C07_errors_documented.

(* without such a shape serialization succeeds *)
Theorem C07_supported : forall ty v, has_type v ty -> supported ty v -> exists out, ser_value ty v = Ok out.
Proof. exact supported_ok. Qed.
Print Assumptions C07_supported.

(* ... and conversely every documented unsupported shape is refused: nothing is silently dropped *)
Theorem C07_unsupported_refused : forall ty v e,
  has_type v ty -> unsupported CElem ty v e -> exists e', ser_value ty v = Err e'.
Proof. exact unsupported_refused. Qed.
Print Assumptions C07_unsupported_refused.

Theorem C07_ok_iff_supported : forall ty v,
  has_type v ty -> ((exists out, ser_value ty v = Ok out) <-> supported ty v).
Proof. exact ser_ok_iff_supported. Qed.
Print Assumptions C07_ok_iff_supported.

(* ---- document roots: toml_edit::ser::{to_string, to_string_pretty, to_document} ---- *)
Theorem C07_edit_root_is_table : forall t v out,
  ser_edit_root t v = Ok out -> exists es, out = VTab es /\ ser_value t v = Ok out.
Proof. exact edit_root_is_table. Qed.
Print Assumptions C07_edit_root_is_table.

Theorem C07_edit_roundtrip : forall ty v out,
  has_type v ty -> ser_edit_root ty v = Ok out -> exists v', de_value ty out = Ok v' /\ sval_eq v v'.
Proof. exact edit_root_roundtrip. Qed.
Print Assumptions C07_edit_roundtrip.

Theorem C07_edit_errors : forall ty v e, has_type v ty -> ser_edit_root ty v = Err e ->
  unsupported CElem ty v e \/ (e = EUnsupportedType None /\ table_shaped ty v = false).
Proof. exact edit_root_errors. Qed.
Print Assumptions C07_edit_errors.

Theorem C07_edit_supported : forall ty v, has_type v ty -> supported ty v -> table_shaped ty v = true ->
  exists out, ser_edit_root ty v = Ok out.
Proof. exact edit_root_supported. Qed.
Print Assumptions C07_edit_supported.

(* ---- document roots: toml::{to_string, to_string_pretty} ---- *)
Theorem C07_toml_roundtrip : forall ty v out,
  has_type v ty -> ser_toml_root ty v = Ok out -> exists v', de_value ty out = Ok v' /\ sval_eq v v'.
Proof. exact toml_root_roundtrip. Qed.
Print Assumptions C07_toml_roundtrip.

Theorem C07_toml_errors : forall ty v e, has_type v ty -> ser_toml_root ty v = Err e ->
  unsupported CElem ty v e
  \/ (e = EUnsupportedType None /\ toml_root_shaped ty v = false)
  \/ (exists n, e = EUnsupportedType (Some n) /\ root_struct_variant ty v n).
Proof. exact toml_root_errors. Qed.
Print Assumptions C07_toml_errors.

Theorem C07_toml_supported : forall ty v, has_type v ty -> supported ty v -> toml_root_shaped ty v = true ->
  exists out, ser_toml_root ty v = Ok out.
Proof. exact toml_root_supported. Qed.
Print Assumptions C07_toml_supported.

(* ---- the five document routes in one statement (the shape of DESIGN.md 6/C07) ----
   routes: EditPlain EditPretty ToDocument TomlPlain TomlPretty; `documented`: an unsupported shape in the
   value, a root that is not table-shaped, or (toml only) a struct variant at the root *)
Theorem C07_roundtrip : forall r ty v, doc_route r = true -> has_type v ty ->
  match ser_route r ty v with
  | Err e => documented r ty v e
  | Ok out => exists v', de_route r ty out = Ok v' /\ sval_eq v v'
  end.
Proof. exact roundtrip_doc_routes. Qed.
Print Assumptions C07_roundtrip.

Theorem C07_supported_routes : forall r ty v,
  doc_route r = true -> has_type v ty -> supported ty v -> root_ok r ty v = true -> exists out, ser_route r ty v = Ok out.
Proof. exact supported_doc_routes. Qed.
Print Assumptions C07_supported_routes.

(* ---- between the tree and the text: the root conversion and the two "pretty" post-processors ----
   (toml_edit::ser::pretty::Pretty for to_string_pretty, toml::fmt::DocumentFormatter for both of toml's):
   the document they hand to the printer denotes the tree ValueSerializer built (`abs`), and has tables
   and arrays of tables only where a [header] can stand (`printable`; the repaired defect F6 was a
   Table left inside an array) *)
Theorem C07_edit_plain_document : forall es,
  abs (doc_edit_plain (VTab es)) = VTab es /\ printable (doc_edit_plain (VTab es)) = true.
Proof. exact doc_edit_plain_ok. Qed.
Print Assumptions C07_edit_plain_document.

Theorem C07_edit_pretty_document : forall es,
  abs (doc_edit_pretty (VTab es)) = VTab es /\ printable (doc_edit_pretty (VTab es)) = true.
Proof. exact doc_edit_pretty_ok. Qed.
Print Assumptions C07_edit_pretty_document.

Theorem C07_toml_document : forall es,
  abs (doc_toml (VTab es)) = VTab es /\ printable (doc_toml (VTab es)) = true.
Proof. exact doc_toml_ok. Qed.
Print Assumptions C07_toml_document.

(* ---- toml::Value::try_from / toml::Table::try_from, read back by try_into ----
   (The defect that made the full statement false, C07-tryfrom-nested-none-dropped, is repaired in /repo:
   SerializeMap::serialize_value swallowed ANY UnsupportedNone coming out of a field's value; now only a None handed
   directly to the field leaves the entry out, as in toml_edit.  The witnesses are kept below.)
   doc_keys ty: no map key type is `char` or `Option<_>` (through newtypes) — keys that SerializeMap::serialize_key
   accepts (anything that serializes to a Value::String) although no document serializer does; has_type knows
   nothing about which of those keys collide. *)

(* whatever Value::try_from / Table::try_from accept, try_into gives back *)
Theorem C07_tryfrom_roundtrip : forall ty v out,
  has_type v ty -> doc_keys ty = true -> tv_ser ty v = Ok out -> exists v', tv_de ty out = Ok v' /\ sval_eq v v'.
Proof. exact tryfrom_roundtrip. Qed.
Print Assumptions C07_tryfrom_roundtrip.

Theorem C07_table_tryfrom_roundtrip : forall ty v out,
  has_type v ty -> doc_keys ty = true -> tv_ser_table ty v = Ok out -> exists v', tv_de ty out = Ok v' /\ sval_eq v v'.
Proof. exact table_tryfrom_roundtrip_full. Qed.
Print Assumptions C07_table_tryfrom_roundtrip.

(* Value::try_from accepts a value exactly when it has no documented unsupported shape — the verdict of the text
   routes (C07_ok_iff_supported): nothing is silently dropped; Table::try_from accepts no more than that *)
Theorem C07_tryfrom_ok_iff_supported : forall ty v,
  has_type v ty -> doc_keys ty = true -> ((exists out, tv_ser ty v = Ok out) <-> supported ty v).
Proof. exact tv_ok_iff_supported. Qed.
Print Assumptions C07_tryfrom_ok_iff_supported.

Theorem C07_table_tryfrom_supported : forall ty v out,
  has_type v ty -> doc_keys ty = true -> tv_ser_table ty v = Ok out -> supported ty v.
Proof. exact table_tryfrom_supported. Qed.
Print Assumptions C07_table_tryfrom_supported.

(* for every type (char / Option keys included): a value without any documented unsupported shape is accepted and
   reads back *)
Theorem C07_tryfrom_supported_roundtrip : forall ty v,
  has_type v ty -> supported ty v ->
  exists out, tv_ser ty v = Ok out /\ exists v', tv_de ty out = Ok v' /\ sval_eq v v'.
Proof. exact tryfrom_supported. Qed.
Print Assumptions C07_tryfrom_supported_roundtrip.

Theorem C07_table_tryfrom_supported_roundtrip : forall ty v out,
  has_type v ty -> supported ty v -> tv_ser_table ty v = Ok out ->
  exists v', tv_de ty out = Ok v' /\ sval_eq v v'.
Proof. exact table_tryfrom_roundtrip. Qed.
Print Assumptions C07_table_tryfrom_supported_roundtrip.

(* a failure of Value::try_from names some documented unsupported shape *)
Theorem C07_tryfrom_errors : forall ty v e,
  has_type v ty -> tv_ser ty v = Err e -> exists e', unsupported CElem ty v e'.
Proof. intros ty v e. exact (tv_errors ty v e). Qed.
Print Assumptions C07_tryfrom_errors.

(* the witnesses of C07-tryfrom-nested-none-dropped: V { v: Some(vec![Some(1), None]) } and
   V { a: 1, v: vec![None] } are refused by both entry points with the error of every other route *)
Theorem C07_tryfrom_nested_none_refused :
  has_type s3_val s3_ty /\ has_type s3b_val s3b_ty
  /\ tv_ser s3_ty s3_val = Err EUnsupportedNone /\ tv_ser_table s3_ty s3_val = Err EUnsupportedNone
  /\ ser_value s3_ty s3_val = Err EUnsupportedNone
  /\ tv_ser s3b_ty s3b_val = Err EUnsupportedNone /\ tv_ser_table s3b_ty s3b_val = Err EUnsupportedNone
  /\ ser_value s3b_ty s3b_val = Err EUnsupportedNone.
Proof. exact tryfrom_nested_none_refused. Qed.
Print Assumptions C07_tryfrom_nested_none_refused.

(* struct N { a: Option<Option<i32>>, b: W(Option<i32>), c: (Option<i32>, i32), d: E, e: Option<i32>,
              m: BTreeMap<String, Vec<Option<i32>>> }     enum E { P(Option<i32>), Q { x: Option<i32> } }
   a None handed directly to a field (a, e, Q.x) leaves the entry out, on every route alike ... *)
Theorem C07_tryfrom_direct_none_skipped :
  let v := nn_val SNone (SNewtype nn_1) nn_c (SVariant 1 (SRec [SNone])) SNone (nn_m nn_1) in
  has_type v nn_ty
  /\ tv_ser nn_ty v = Ok (VTab [(str "b", VInt 1); (str "c", VArr [VInt 1; VInt 2]); (str "d", VTab [(str "Q", VTab [])]);
                                (str "m", VTab [(str "k", VArr [VInt 1])])])
  /\ ser_value nn_ty v = tv_ser nn_ty v /\ tv_ser_table nn_ty v = tv_ser nn_ty v.
Proof. exact tryfrom_direct_none_skipped. Qed.
Print Assumptions C07_tryfrom_direct_none_skipped.

(* ... and a None anywhere deeper — Some(None), a newtype around None, None in a tuple, in a newtype variant's
   payload, in a sequence inside a map — is an error, on every route alike *)
Theorem C07_tryfrom_nested_none_shapes :
  Forall (fun v => has_type v nn_ty /\ tv_ser nn_ty v = Err EUnsupportedNone /\ tv_ser_table nn_ty v = Err EUnsupportedNone
                   /\ ser_value nn_ty v = Err EUnsupportedNone)
    [nn_val (SSome SNone) (SNewtype nn_1) nn_c nn_d nn_1 (nn_m nn_1);
     nn_val (SSome nn_1) (SNewtype SNone) nn_c nn_d nn_1 (nn_m nn_1);
     nn_val (SSome nn_1) (SNewtype nn_1) (SSeq [SNone; SInt 2]) nn_d nn_1 (nn_m nn_1);
     nn_val (SSome nn_1) (SNewtype nn_1) nn_c (SVariant 0 SNone) nn_1 (nn_m nn_1);
     nn_val (SSome nn_1) (SNewtype nn_1) nn_c nn_d nn_1 (nn_m SNone)].
Proof. exact tryfrom_nested_none_shapes. Qed.
Print Assumptions C07_tryfrom_nested_none_shapes.

(* ---- non-vacuity ---- *)
(* struct Cfg { m: BTreeMap<String, Vec<En>>, o: Option<Point>, t: En, d: Datetime, w: Wrap(u8), c: char, x: f32 }
   enum En { U, N(i64), T(bool, String), S { a: Option<i32>, b: u64 } }     struct Point { x: i32, y: i32 } *)
Definition ex_en : ty :=
  TEnum (str "En") [(str "U", VUnit); (str "N", VNewtype (TInt TI64)); (str "T", VTuple [TBool; TStr]);
                    (str "S", VStruct [(str "a", TOpt (TInt TI32)); (str "b", TInt TU64)])].
Definition ex_point : ty := TStruct (str "Point") [(str "x", TInt TI32); (str "y", TInt TI32)].
Definition ex_ty : ty :=
  TStruct (str "Cfg") [(str "m", TMap TStr (TSeq ex_en)); (str "o", TOpt ex_point); (str "n", TOpt ex_point);
                       (str "t", ex_en); (str "d", TDatetime KDatetime); (str "w", TNewtype (str "Wrap") (TInt TU8));
                       (str "c", TChar); (str "x", TFloat F32)].
Definition ex_dt : datetime := mkDT (Some (mkDate 1979 5 27)) (Some (mkTime 7 32 0 500000000)) (Some (OffCustom (-420))).
Definition ex_val : sval :=
  SRec [SMap [(SStr (str "k1"), SSeq [SVariant 0 SUnit; SVariant 1 (SInt (-5)); SVariant 3 (SRec [SNone; SInt 7])]);
              (SStr (str "k2"), SSeq [])];
        SSome (SRec [SInt 1; SInt (-2)]); SNone;
        SVariant 2 (SSeq [SBool true; SStr (str "x y")]); SDt ex_dt; SNewtype (SInt 255);
        SChar 233; SF32 1036831949].

Example C07_ex_typed : has_type ex_val ex_ty /\ doc_keys ex_ty = true /\ doc_keys nn_ty = true.
Proof. repeat split; vm_compute; reflexivity. Qed.

Example C07_ex_ser :
  ser_edit_root ex_ty ex_val =
  Ok (VTab [(str "m", VTab [(str "k1", VArr [VStr (str "U"); VTab [(str "N", VInt (-5))];
                                            VTab [(str "S", VTab [(str "b", VInt 7)])]]);
                            (str "k2", VArr [])]);
            (str "o", VTab [(str "x", VInt 1); (str "y", VInt (-2))]);
            (str "t", VTab [(str "T", VArr [VBool true; VStr (str "x y")])]);
            (str "d", VDatetime ex_dt); (str "w", VInt 255); (str "c", VStr [xc3; xa9]);
            (str "x", VFloat 4591870180174331904)]).
Proof. vm_compute. reflexivity. Qed.

Example C07_ex_roundtrip :
  match ser_toml_root ex_ty ex_val with Ok out => de_value ex_ty out | Err e => Err e end = Ok ex_val.
Proof. vm_compute. reflexivity. Qed.

(* the documented unsupported shapes do occur, and are refused: None in a sequence, a unit, a
   non-string key, a u64 beyond i64, a non-table root, a struct variant at the root of toml::to_string *)
Example C07_ex_tryfrom_roundtrip :
  match tv_ser ex_ty ex_val with Ok out => tv_de ex_ty out | Err e => Err e end = Ok ex_val.
Proof. vm_compute. reflexivity. Qed.

(* v = ["U", { B = { inner = 1 } }] (the F6 witness) stays an inline array; w = [{ x = [1] }, { x = [] }] becomes [[w]] *)
Example C07_ex_pretty :
  doc_edit_pretty (VTab [(str "v", VArr [VStr (str "U"); VTab [(str "B", VTab [(str "inner", VInt 1)])]]);
                         (str "w", VArr [VTab [(str "x", VArr [VInt 1])]; VTab [(str "x", VArr [])]]);
                         (str "t", VTab [(str "a", VTab [])])])
  = ITab [(str "v", IArr [ILeaf (VStr (str "U")); IInl [(str "B", IInl [(str "inner", ILeaf (VInt 1))])]]);
          (str "w", IAot [ITab [(str "x", IArr [ILeaf (VInt 1)])]; ITab [(str "x", IArr [])]]);
          (str "t", ITab [(str "a", ITab [])])].
Proof. vm_compute. reflexivity. Qed.

Example C07_ex_none_in_seq :
  ser_value (TSeq (TOpt TBool)) (SSeq [SSome (SBool true); SNone]) = Err EUnsupportedNone
  /\ unsupported CElem (TSeq (TOpt TBool)) (SSeq [SSome (SBool true); SNone]) EUnsupportedNone.
Proof. split; [vm_compute; reflexivity|]. eapply u_seq; [right; left; reflexivity|apply u_none]. Qed.

Example C07_ex_int_key :
  ser_value (TMap (TInt TI32) TBool) (SMap [(SInt 1, SBool true)]) = Err EKeyNotString.
Proof. vm_compute. reflexivity. Qed.

Example C07_ex_u64 :
  ser_value (TInt TU64) (SInt 9223372036854775808) = Err (EOutOfRange (Some S_u64))
  /\ ser_value (TInt TU64) (SInt 9223372036854775807) = Ok (VInt 9223372036854775807).
Proof. split; vm_compute; reflexivity. Qed.

Example C07_ex_root :
  ser_edit_root (TSeq TBool) (SSeq []) = Err (EUnsupportedType None)
  /\ ser_toml_root ex_en (SVariant 3 (SRec [SNone; SInt 7])) = Err (EUnsupportedType (Some (str "En")))
  /\ ser_edit_root ex_en (SVariant 3 (SRec [SNone; SInt 7])) = Ok (VTab [(str "S", VTab [(str "b", VInt 7)])]).
Proof. repeat split; vm_compute; reflexivity. Qed.

(* a Datetime at the root of a document is refused as a non-table by toml::to_string as by toml_edit's (since the repair
   of C06-root-datetime-printed-as-table; before, toml::to_string wrote the document `"$__toml_private_datetime" = ".."`);
   Value::try_from yields the date-time, Table::try_from refuses it as a non-table too (before: the table
   { "$__toml_private_datetime" = ".." }) *)
Example C07_ex_root_datetime :
  ser_toml_root (TDatetime KDatetime) (SDt ex_dt) = Err (EUnsupportedType None)
  /\ ser_edit_root (TDatetime KDatetime) (SDt ex_dt) = Err (EUnsupportedType None)
  /\ toml_root_shaped (TDatetime KDatetime) (SDt ex_dt) = false
  /\ tv_ser (TDatetime KDatetime) (SDt ex_dt) = Ok (VDatetime ex_dt)
  /\ tv_ser_table (TDatetime KDatetime) (SDt ex_dt) = Err (EUnsupportedType None)
  /\ tv_ser_table (TOpt (TDatetime KDatetime)) (SSome (SDt ex_dt)) = Err (EUnsupportedType None).
Proof. repeat split; vm_compute; reflexivity. Qed.
