(* Props/C03exact.v — property C03: unedited documents print back byte-for-byte, apart from the
   documented normalizations.

     normalize s        Spec/Norm.v: the normal form of the text, computed WITHOUT the parser by the
                        six-state scanner of lib/toml_text.py (a leading byte-order mark dropped, every
                        CR outside multi-line-string bodies deleted, LF added after a last key/value or
                        header line that the end of the text terminates);
     render s d         Proofs/PrintBackBase.v: Display (Model/Encode.v display_document) of the parsed
                        tree after every span was replaced by the text it covers (`despan`);
     print_doc s d      what the `rt` / `doc` commands of Extract/Commands.v print: the same with the
                        partial `despan` of Model/Encode.v; C03_printed_is_render: whenever that
                        succeeds (C14: spans are in range and on char boundaries) it is `render s d`;
     vtext / item_text / lines_text   Proofs/TilingDefs.v: the tiling of a text by the grammar —
                        `lines_text t l o`: t is complete lines (blanks, item, line end, blanks ...), l
                        the statements of Spec/Syntax.v they make, o the same tiles with the CRs of
                        the trivia dropped and every line end written as LF;
     flat_doc d         decided on the tree: every item of the root table is a value, and no inline
                        table inside these values was written with a dotted key;
     sec_doc d          decided on the tree: no table of the document was made by dotted keys (hereditarily,
                        through sub-tables and arrays of tables), and no inline table inside a value either;
     spelled s (doc_root d)   decided on the tree and the source: for every table that prints a header, the
                        header as Display prints it ([ key path ] built from the Key objects stored along the
                        table's path) is the text that stands in the source where the table's span starts.

   The main statement (DESIGN.md section 6, C03, words its side condition on the text; here it is decided on
   the tree and the source) is
     C03_exact : parse_document s = POk d -> laid_out' s (doc_root d) = true -> render s d = normalize s
   where the side condition asks that print order is source order (dotted-key lines of one prefix adjacent) and
   that a key shared by several headers / dotted keys is spelled the same way each time, blanks around
   the dots included (finding F5 and its relatives below).

   Proved here, by classes of documents:
     C03_tiling          every accepted document: the text is tiled by the grammar and `normalize` is
                         the normal form of the tiles (no condition);
     C03_tiling_key / C03_tiling_value   the recorded spans of a key path / a value, printed, are the
                         bytes consumed (CRs of the trivia dropped);
     C03_exact_flat      class (a): `key = scalar` lines, comments, blank lines;
     C03_exact_values    class (a) + (b): values may be arrays and inline tables, nested, inline tables
                         with plain (undotted) keys;
     C03_exact_sections  class (a) + (b) + (c): [table] and [[array of tables]] headers with key paths of any
                         length, in any order (sub-tables before or after their parents, super-tables
                         defined later, elements of several arrays interleaved): Display sorts the tables by
                         the position the parser gave them, which is the source order.  The side condition
                         is `spelled`: exactly the prefix-consistency of finding F5, stated on the tree.
     C03_exact_dotted    class (a) + (b) + (c) + (d) for key/value lines: dotted keys `a.b = 1`, also below headers and
                         through tables that dotted keys made (`[t]` / `y.z = 1` / `[t.y.k]`).  Conditions:
                         dot_doc d (values plain: no dotted key inside an inline table) and laid_out s (doc_root d):
                         Display's print sequence (tables sorted by position; per table its header, then its lines
                         through the dotted tables) is checked against the source — a table that exists only as
                         a super-table holds no lines; the source positions of the printed headers and lines
                         increase (`dotted_adjacent` and more: print order = source order); every header and every
                         line's key path is spelled in the source as it prints (`prefix_consistent`).
     C03_exact           EVERY class, one decidable side condition: laid_out' s (doc_root d) = vals_ok && laid_out.
                         vals_ok: every inline table inside the values either has no table implied by dotted keys
                         among its items, or its pairs — in the order Display prints them (InlineTable::append_values
                         flattens the tables that dotted keys made) — follow each other in the source as written: the
                         first starts after the opening brace, each next one after the comma behind the previous
                         pair's value, key positions increase, and each key path is spelled in the source as it
                         prints (Proofs/PrintBackIValue.v `vok`: adjacency and prefix-consistency inside the braces,
                         hereditarily through arrays and nested inline tables).
   Nothing is left uncovered: C03_exact has no restriction on the shape of the document.

   Statements only; proofs in Proofs/Tiling*.v and Proofs/PrintBack*.v. *)
From TV Require Import Base.Prelude Base.Utf8 Base.Winnow Spec.Lex Spec.Syntax Spec.Norm.
From TV Require Import Model.Tree Model.Parse Model.Document Model.Encode.
From TV Require Import Proofs.LexEquivBase Proofs.TilingDefs Proofs.TilingNormDoc
                       Proofs.PrintBackBase Proofs.PrintBackEnc Proofs.PrintBackKey Proofs.PrintBackValue
                       Proofs.PrintBackTop Proofs.PrintBackDespan Proofs.PrintBackFinal Proofs.PrintBackSecTop
                       Proofs.PrintBackDFinal Proofs.PrintBackDTop.
From TV Require Proofs.SpansDespanTotal.
Require Import String Ascii.

(* ---- printing --------------------------------------------------------------------------------------- *)
(* the text printed by `DocumentMut::to_string()` for an unedited document is a function of the tree
   and the source: Display of the tree in which every span is replaced by the slice it covers *)
Theorem C03_printed_is_render : forall s d o, print_doc s d = Some o -> o = render s d.
Proof. exact print_doc_render. Qed.
Print Assumptions C03_printed_is_render.

(* ---- tiling ------------------------------------------------------------------------------------------ *)
(* a key path: blanks, the dotted key, blanks — and printing the recorded Key objects (repr span, leaf
   decor, dotted decor of every part) gives back exactly these bytes *)
Theorem C03_tiling_key : forall s i kp i', isrc s i -> key_ i = Ok kp i' ->
  exists w1 t w2, ws_tok w1 /\ key_tok t (map k_key kp) /\ ws_tok w2 /\ splits i (w1 ++ t ++ w2) i'
                  /\ (forall dflt, encode_key_path (map (tkey s) kp) dflt = w1 ++ t ++ w2).
Proof.
  intros s i kp i' Hi H. destruct (key_render s i kp i' Hi H) as (w1 & t & w2 & H1 & H2 & H3 & H4 & _ & H5).
  exists w1, t, w2. auto.
Qed.
Print Assumptions C03_tiling_key.

(* a value: the text consumed has the grammar's tiling `vtext t a o`, and if no inline table in it
   was written with dotted keys, Display of the value (its own decor aside) is the normal form o *)
Theorem C03_tiling_value : forall s i v i', isrc s i -> value_ i = Ok v i' ->
  exists t a o, vtext t a o /\ splits i t i'
    /\ (vplain v = true -> display_value (tvalue s (value_decorate v REmpty REmpty)) = o).
Proof.
  intros s i v i' Hi H. destruct (PrintBackKeyval.value_render s i v i' Hi H) as (t & a & o & Ht & S & _ & Hv).
  exists t, a, o. split; [exact Ht|]. split; [exact S|]. intro Hp. apply (Hv Hp). apply Nat.lt_succ_diag_r.
Qed.
Print Assumptions C03_tiling_value.

(* every accepted document: blanks, then complete lines; `normalize` (which never looks at the
   grammar) computes the normal form of this tiling *)
Theorem C03_tiling : forall s d, parse_document s = POk d ->
  exists w t l o, strip_bom s = w ++ t /\ ws_tok w /\ lines_text t l o /\ normalize s = w ++ o.
Proof. exact document_tiling. Qed.
Print Assumptions C03_tiling.

(* the scanner side alone: whatever text is tiled this way, accepted or not *)
Theorem C03_normalize_lines : forall s w t l o,
  drop_bom s = w ++ t -> ws_tok w -> lines_text t l o -> normalize s = w ++ o.
Proof. exact norm_lines. Qed.
Print Assumptions C03_normalize_lines.

(* ---- exactness ---------------------------------------------------------------------------------------- *)
(* class (a) + (b) *)
Theorem C03_exact_values : forall s d, parse_document s = POk d -> flat_doc d = true -> render s d = normalize s.
Proof. exact render_normalize_values. Qed.
Print Assumptions C03_exact_values.

(* the same for the text the commands print *)
Theorem C03_exact_values_printed : forall s d o,
  parse_document s = POk d -> flat_doc d = true -> print_doc s d = Some o -> o = normalize s.
Proof. intros s d o Hp Hf Ho. rewrite (print_doc_render s d o Ho). apply render_normalize_values; assumption. Qed.
Print Assumptions C03_exact_values_printed.

(* class (a): every item of the root table is a scalar *)
Definition scalar_doc (d : doc) : bool :=
  forallb (fun kv : key * item => match snd kv with IValue (VScalar _ _ _) => true | _ => false end) (t_items (doc_root d)).

Theorem C03_exact_flat : forall s d, parse_document s = POk d -> scalar_doc d = true -> render s d = normalize s.
Proof.
  intros s d Hp Hs. apply render_normalize_values; [exact Hp|]. unfold flat_doc, items_plain. unfold scalar_doc in Hs.
  rewrite forallb_forall in *. intros [k it] Hin. specialize (Hs _ Hin). cbn [snd] in *.
  destruct it as [|v| |]; try discriminate. destruct v; try discriminate. reflexivity.
Qed.
Print Assumptions C03_exact_flat.

(* class (a) + (b) + (c): sections *)
Theorem C03_exact_sections : forall s d,
  parse_document s = POk d -> sec_doc d = true -> spelled s (doc_root d) = true -> render s d = normalize s.
Proof. exact render_normalize_sections. Qed.
Print Assumptions C03_exact_sections.

Theorem C03_exact_sections_printed : forall s d o,
  parse_document s = POk d -> sec_doc d = true -> spelled s (doc_root d) = true -> print_doc s d = Some o -> o = normalize s.
Proof. intros s d o Hp Hf Hs Ho. rewrite (print_doc_render s d o Ho). apply render_normalize_sections; assumption. Qed.
Print Assumptions C03_exact_sections_printed.

(* with C14 (despan never fails on a parsed UTF-8 text, Proofs/SpansDespanTotal.v): what is printed, outright *)
Theorem C03_exact_sections_total : forall s d,
  utf8_valid_b s = true -> parse_document s = POk d -> sec_doc d = true -> spelled s (doc_root d) = true ->
  print_doc s d = Some (normalize s).
Proof.
  intros s d Hu Hp Hf Hs. destruct (SpansDespanTotal.despan_total s d Hu Hp) as (r & t & Er & Et).
  assert (E : print_doc s d = Some (display_document r t)) by (unfold print_doc; rewrite Er, Et; reflexivity).
  rewrite E. f_equal. rewrite (print_doc_render s d _ E). apply render_normalize_sections; assumption.
Qed.
Print Assumptions C03_exact_sections_total.

(* class (a) + (b) + (c) + (d, key/value lines): dotted keys *)
Theorem C03_exact_dotted : forall s d,
  parse_document s = POk d -> dot_doc d = true -> laid_out s (doc_root d) = true -> render s d = normalize s.
Proof. exact render_normalize_dotted. Qed.
Print Assumptions C03_exact_dotted.

Theorem C03_exact_dotted_total : forall s d,
  utf8_valid_b s = true -> parse_document s = POk d -> dot_doc d = true -> laid_out s (doc_root d) = true ->
  print_doc s d = Some (normalize s).
Proof.
  intros s d Hu Hp Hf Hs. destruct (SpansDespanTotal.despan_total s d Hu Hp) as (r & t & Er & Et).
  assert (E : print_doc s d = Some (display_document r t)) by (unfold print_doc; rewrite Er, Et; reflexivity).
  rewrite E. f_equal. rewrite (print_doc_render s d _ E). apply render_normalize_dotted; assumption.
Qed.
Print Assumptions C03_exact_dotted_total.

(* every class: dotted keys inside inline tables included *)
Theorem C03_exact : forall s d,
  parse_document s = POk d -> laid_out' s (doc_root d) = true -> render s d = normalize s.
Proof. exact render_normalize_all. Qed.
Print Assumptions C03_exact.

Theorem C03_exact_total : forall s d,
  utf8_valid_b s = true -> parse_document s = POk d -> laid_out' s (doc_root d) = true -> print_doc s d = Some (normalize s).
Proof.
  intros s d Hu Hp Hl. destruct (SpansDespanTotal.despan_total s d Hu Hp) as (r & t & Er & Et).
  assert (E : print_doc s d = Some (display_document r t)) by (unfold print_doc; rewrite Er, Et; reflexivity).
  rewrite E. f_equal. rewrite (print_doc_render s d _ E). apply render_normalize_all; assumption.
Qed.
Print Assumptions C03_exact_total.

(* ---- examples ------------------------------------------------------------------------------------------- *)
Definition txt (s : string) : bytes := List.map byte_of_ascii (list_ascii_of_string s).
Definition lf : string := String (ascii_of_nat 10) EmptyString.
Definition cr : string := String (ascii_of_nat 13) EmptyString.
Definition dq : string := String (ascii_of_nat 34) EmptyString.
Open Scope string_scope.

(* byte-order mark, CRLF and LF mixed, comments in every slot, a trailing comma, multi-line strings
   containing CR LF (kept), blanks at the end, no final newline *)
Definition ex_nasty : bytes :=
  ([xef; xbb; xbf] ++ txt ("  # top" ++ cr ++ lf ++ cr ++ lf ++ "  a  =  [ 1 , # c" ++ cr ++ lf ++ " 2 , ]  # after" ++ cr ++ lf
     ++ "b = { x = 1 , y = [ ] , " ++ dq ++ "z w" ++ dq ++ " = { } }" ++ cr ++ lf
     ++ "s = " ++ dq ++ dq ++ dq ++ "one" ++ cr ++ lf ++ "two" ++ dq ++ dq ++ dq ++ dq ++ " # ml" ++ lf
     ++ "l = '''" ++ cr ++ lf ++ "x''' " ++ cr ++ lf ++ "   " ++ cr ++ lf ++ "last = 'x'  "))%list.

(* parse, print as the commands do, compare with the scanner's normal form *)
Definition prints_normal (s : bytes) : bool :=
  match parse_document s with
  | POk d => match print_doc s d with Some o => bytes_eqb o (normalize s) | None => false end
  | _ => false
  end.
Definition is_flat (s : bytes) : bool := match parse_document s with POk d => flat_doc d | _ => false end.

Example C03_ex_nasty :
  prints_normal ex_nasty = true /\ is_flat ex_nasty = true
  /\ normalize ex_nasty =
       txt ("  # top" ++ lf ++ lf ++ "  a  =  [ 1 , # c" ++ lf ++ " 2 , ]  # after" ++ lf
            ++ "b = { x = 1 , y = [ ] , " ++ dq ++ "z w" ++ dq ++ " = { } }" ++ lf
            ++ "s = " ++ dq ++ dq ++ dq ++ "one" ++ cr ++ lf ++ "two" ++ dq ++ dq ++ dq ++ dq ++ " # ml" ++ lf
            ++ "l = '''" ++ cr ++ lf ++ "x''' " ++ lf ++ "   " ++ lf ++ "last = 'x'  " ++ lf).
Proof. split; [|split]; vm_compute; reflexivity. Qed.

(* a last line that is a comment gets no LF *)
Example C03_ex_last_comment :
  let s := txt ("a = 1" ++ cr ++ lf ++ "# end") in
  prints_normal s = true /\ is_flat s = true /\ normalize s = txt ("a = 1" ++ lf ++ "# end").
Proof. split; [|split]; vm_compute; reflexivity. Qed.

(* class (c): headers with paths of any length, sub-tables before their parent (`[t.w]` ... `[t]` would also
   do), arrays of tables whose elements are interleaved with other sections, a super-table defined
   later (`[ u ]` after `[[ u.v ]]`), a quoted key holding `]`, CRLF, comments between sections: the
   conditions of C03_exact_sections hold, so the theorem applies; here also by computation *)
Definition ex_sections : bytes :=
  txt ("x = 1" ++ cr ++ lf ++ " # c" ++ lf ++ "[ t ] # h" ++ cr ++ lf ++ "y = [ 1, 2 ]" ++ lf ++ "[[ u.v ]]" ++ lf ++ "z = 2" ++ lf
       ++ "[t.w]" ++ lf ++ "[[ u.v ]]" ++ lf ++ "  # c2" ++ lf ++ "[ u ]" ++ lf ++ "[ " ++ dq ++ "a]b" ++ dq ++ " . c]" ++ lf ++ "k = {a = 1}").
Definition sections_ok (s : bytes) : bool :=
  match parse_document s with POk d => sec_doc d && spelled s (doc_root d) | _ => false end.
Example C03_ex_sections : sections_ok ex_sections = true /\ prints_normal ex_sections = true /\ is_flat ex_sections = false.
Proof. split; [|split]; vm_compute; reflexivity. Qed.

(* class (d): dotted keys in the root section and below headers, a header through a table made by dotted
   keys (`[t.y.k]`), arrays of tables, quoted keys: the conditions of C03_exact_dotted hold *)
Definition ex_dotted : bytes :=
  txt ("x = 1" ++ cr ++ lf ++ " # c" ++ lf ++ "a.b = 1" ++ lf ++ "a.c = 2" ++ lf ++ "  a.d.e = 3 # t" ++ lf ++ "[ t ] # h" ++ cr ++ lf
       ++ "y.z = [ 1, 2 ]" ++ lf ++ "y.w = 3" ++ lf ++ "[[ u.v ]]" ++ lf ++ "z = 2" ++ lf ++ "[t.y.k]" ++ lf ++ "[[ u.v ]]" ++ lf
       ++ dq ++ "p q" ++ dq ++ ".r = 1").
Definition dotted_ok (s : bytes) : bool :=
  match parse_document s with POk d => dot_doc d && laid_out s (doc_root d) | _ => false end.
Example C03_ex_dotted : dotted_ok ex_dotted = true /\ prints_normal ex_dotted = true /\ sections_ok ex_dotted = false.
Proof. split; [|split]; vm_compute; reflexivity. Qed.

(* dotted keys inside inline tables, nested through an array with a comment, without blanks and with
   blanks around the dots: the condition of C03_exact holds *)
Definition all_ok (s : bytes) : bool :=
  match parse_document s with POk d => laid_out' s (doc_root d) | _ => false end.
Definition ex_inline_dotted : bytes :=
  txt ("q = { m.n = 1, m.o = 2 }" ++ lf ++ "x = {a.b=1,a.c={ d.e = [ 1, # c" ++ lf ++ " { f . g = 1 , f . h = 2 } ], d.h = 2 } , z = 3}" ++ lf
       ++ "[t]" ++ lf ++ "u.v = { w.x = 1 }" ++ lf).
Example C03_ex_inline_dotted : all_ok ex_inline_dotted = true /\ prints_normal ex_inline_dotted = true /\ dotted_ok ex_inline_dotted = false.
Proof. split; [|split]; vm_compute; reflexivity. Qed.

(* inside the braces the same things go wrong: pairs of one prefix that are not adjacent, a respelled prefix *)
Example C03_ex_inline_fails :
  all_ok (txt ("x = { a.b = 1, c = 2, a.d = 3 }" ++ lf)) = false /\ prints_normal (txt ("x = { a.b = 1, c = 2, a.d = 3 }" ++ lf)) = false
  /\ all_ok (txt ("x = { a.b = 1, " ++ dq ++ "a" ++ dq ++ ".c = 2 }" ++ lf)) = false
  /\ prints_normal (txt ("x = { a.b = 1, " ++ dq ++ "a" ++ dq ++ ".c = 2 }" ++ lf)) = false.
Proof. repeat split; vm_compute; reflexivity. Qed.

(* the earlier examples satisfy the one condition too *)
Example C03_ex_all : all_ok ex_nasty = true /\ all_ok ex_sections = true /\ all_ok ex_dotted = true.
Proof. repeat split; vm_compute; reflexivity. Qed.

(* ---- why the side condition of the target statement is needed ---------------------------------------------- *)
(* finding F5: keys sharing a dotted prefix that is spelled differently print with the first
   mention's spelling:   a.b = 1 / "a" .c = 2   prints   a.b = 1 / a.c = 2 *)
Theorem C03_exact_refuted_without_prefix_consistency :
  let s := txt ("a.b = 1" ++ lf ++ dq ++ "a" ++ dq ++ " .c = 2" ++ lf) in
  exists d, parse_document s = POk d /\ render s d <> normalize s
            /\ render s d = txt ("a.b = 1" ++ lf ++ "a.c = 2" ++ lf) /\ normalize s = s.
Proof. eexists. split; [vm_compute; reflexivity|]. split; [vm_compute; discriminate|]. split; vm_compute; reflexivity. Qed.
Print Assumptions C03_exact_refuted_without_prefix_consistency.

(* the same family, blanks only: the key of a later header replaces the key object of the implicit
   super-table, so an EARLIER header prints with the later spelling:
     [ a . b ] / [ a ]   prints   [ a. b ] / [ a ] *)
Example C03_ex_respelled_blanks :
  let s := txt ("[ a . b ]" ++ lf ++ "[ a ]" ++ lf) in
  exists d, parse_document s = POk d /\ render s d = txt ("[ a. b ]" ++ lf ++ "[ a ]" ++ lf) /\ normalize s = s.
Proof. eexists. split; [vm_compute; reflexivity|]. split; vm_compute; reflexivity. Qed.

(* `spelled` is what rules these out: it fails for the document above, and for an array of tables
   whose second header is spelled differently from the first ([[u.v]] / [[ u.v ]]) *)
Example C03_ex_spelled_fails :
  sections_ok (txt ("[ a . b ]" ++ lf ++ "[ a ]" ++ lf)) = false /\ sections_ok (txt ("[[u.v]]" ++ lf ++ "[[ u.v ]]" ++ lf)) = false
  /\ prints_normal (txt ("[[u.v]]" ++ lf ++ "[[ u.v ]]" ++ lf)) = false.
Proof. split; [|split]; vm_compute; reflexivity. Qed.

(* `laid_out` is what rules out the dotted-key variants: F5's witness, lines of one prefix that are not
   adjacent (below), and a dotted key that runs through a super-table (class U1 of the specification) *)
Example C03_ex_laid_out_fails :
  dotted_ok (txt ("a.b = 1" ++ lf ++ dq ++ "a" ++ dq ++ " .c = 2" ++ lf)) = false
  /\ dotted_ok (txt ("a.b = 1" ++ lf ++ "c = 2" ++ lf ++ "a.d = 3" ++ lf)) = false
  /\ dotted_ok (txt ("[a.b.c]" ++ lf ++ "[a]" ++ lf ++ "b.y.z = 1" ++ lf)) = false
  /\ prints_normal (txt ("[a.b.c]" ++ lf ++ "[a]" ++ lf ++ "b.y.z = 1" ++ lf)) = false.
Proof. repeat split; vm_compute; reflexivity. Qed.

(* dotted keys of one prefix that are not adjacent print together: a.b = 1 / c = 2 / a.d = 3 *)
Example C03_ex_not_adjacent :
  let s := txt ("a.b = 1" ++ lf ++ "c = 2" ++ lf ++ "a.d = 3" ++ lf) in
  exists d, parse_document s = POk d /\ render s d = txt ("a.b = 1" ++ lf ++ "a.d = 3" ++ lf ++ "c = 2" ++ lf) /\ normalize s = s.
Proof. eexists. split; [vm_compute; reflexivity|]. split; vm_compute; reflexivity. Qed.
