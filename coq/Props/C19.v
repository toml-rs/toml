(* Props/C19.v — The toml! macro builds the same table as parsing the same text.

   Objects (Spec/MacroSpec.v, Model/Macro.v):
     astmt            a TOML document as statements WITH the spelling choices that decide its Rust tokens
                      (bare / quoted key segments, sign and digits of numbers, delimiter / fraction / offset of a
                      date-time, a trailing comma)
     tokens_of        the token trees rustc hands to `toml!` for that text
     macro_supported  the spellings the macro has rules for: keys made of identifiers, plain decimal integers,
                      dashes and quoted strings (and lexing as such); unsigned and `+` integers within i32, negative
                      integers down to i64::MIN; `-hh:mm` / `Z` offsets
     eval             what PARSING the text yields: the TOML definition rules of Spec/Defs.v (proved equal to the
                      parser's state machine in C09), numbers by the TOML rules, date-times by the document grammar;
                      None for a document that is not (decidedly) valid
     macro_eval       Model/Macro.v: the rules of `toml_internal!` as data, a macro-by-example matcher and
                      transcriber (first rule that matches), `insert_toml` / `insert_table_toml` / `push_toml` /
                      `traverse`, rustc's literal typing, `concat!` / `stringify!`, `Datetime::from_str`
   Tables are compared as association lists in first-mention order (both sides produce literally the same list);
   the observation of the real code sorts by key.

   The theorems are about the model; the model is tied to the real macro by lib/props/c19.py: generated documents
   compiled inside toml!{..} by rustc against the working tree, compared with the runtime parse (the oracle) and
   with `macro_eval` / `eval` of the extracted model. *)
From TV Require Import Base.Prelude Model.Datetime Model.Macro Spec.Defs Spec.MacroSpec.
From TV Require Import Proofs.MacroSem Proofs.MacroExamples Proofs.MacroStmt Proofs.MacroScalar Proofs.MacroDoc Proofs.MacroDt
  Proofs.MacroEq Proofs.MacroTop.

(* ---- THE CLAIM: macro = parse, for every supported valid document ---- *)
Theorem C19_macro_eq_parse : forall l t,
  macro_supported l = true -> eval l = Some t -> macro_eval (tokens_of l) = EOk t.
Proof. exact macro_eq_parse. Qed.
Print Assumptions C19_macro_eq_parse.

(* the expansion neither fails nor runs out of the model's fuel on such a document *)
Theorem C19_macro_total : forall l, macro_supported l = true -> valid l -> exists t, macro_eval (tokens_of l) = EOk t.
Proof. exact macro_total. Qed.
Print Assumptions C19_macro_total.

(* ---- against the unmodified claims specification of C09 (Spec/Defs.v `spec_run` through `spec_eval`) ---- *)
(* `eval` keeps a table whose own header arrives late at its first-mention position, Spec/Defs.v moves it to the
   end: `Same` = the same content under every key, recursively (arrays of tables element by element); the order
   of keys is not compared (a toml::Table is a BTreeMap, or an IndexMap nobody promised an order for) *)
Theorem C19_eval_is_the_specification : forall l tr, spec_eval l = Some tr ->
  exists t, eval l = Some (MTab (erase_tree t)) /\ Same mval t tr.
Proof. exact eval_same_as_spec. Qed.
Print Assumptions C19_eval_is_the_specification.

Theorem C19_macro_eq_spec : forall l tr, macro_supported l = true -> spec_eval l = Some tr ->
  exists t, macro_eval (tokens_of l) = EOk (MTab (erase_tree t)) /\ Same mval t tr.
Proof. exact macro_eq_spec. Qed.
Print Assumptions C19_macro_eq_spec.

(* ---- the two halves, separately ---- *)
(* (1) semantic: on every valid document the helper functions build what the definition rules say
       (no restriction on spellings; this is where the defect repaired in b3ebafc lived) *)
Theorem C19_helpers_follow_definition_rules : forall l t,
  eval l = Some t -> helper_fold (MTab []) [] l = Some t.
Proof. exact helpers_follow_definition_rules. Qed.
Print Assumptions C19_helpers_follow_definition_rules.

Theorem C19_helper_step : forall t cur st t' cur',
  ref_step (t, cur) st = ROk (t', cur') ->
  helper_step (MTab (erase_tree t)) cur st = Some (MTab (erase_tree t'), cur').
Proof. exact helper_step_ref. Qed.
Print Assumptions C19_helper_step.

(* (2) values: every supported value is given its TOML meaning (scalars through rustc's literal typing,
       date-times through stringify!/concat!/from_str, arrays and inline tables through the @array / @table loops) *)
Theorem C19_value_eq_parse : forall v m, val_ok v = true -> val_meaning v = Some m -> val_ev v m (vcost v).
Proof. exact value_eq_parse. Qed.
Print Assumptions C19_value_eq_parse.

(* date-times: a space between date and time becomes `T`, and the standalone parser agrees with the grammar (C12) *)
Theorem C19_datetime_rules : forall d dv, dt_ok d = true -> doc_datetime (dt_text d) = Some dv ->
  datetime_value (dt_norm_toks d) = EOk (MDatetime dv).
Proof. exact dt_agree. Qed.
Print Assumptions C19_datetime_rules.

(* ---- spellings that COMPILE but are outside macro_supported: the macro differs from the parser ---- *)
(* `05 = 1`: concat! prints an integer literal by value: key "5" instead of "05" *)
Theorem C19_int_key_refuted :
  exists l t t', forallb (fun s => match s with AKeyVal [KBare [KPInt k]] v => forallb is_digit k && val_ok v | _ => false end) l = true
                 /\ eval l = Some t /\ macro_eval (tokens_of l) = EOk t' /\ t <> t'.
Proof. exact int_key_refuted. Qed.
Print Assumptions C19_int_key_refuted.

(* ---- negative integers: every one TOML accepts is supported and gets its value (repaired: `macros::number`) ---- *)
Theorem C19_negative_integers : forall t z, int_meaning SgMinus t = Some z ->
  int_ok SgMinus t = true /\ val_ev (AInt SgMinus t) (MInt z) 1.
Proof. exact negative_integers. Qed.
Print Assumptions C19_negative_integers.

(* ---- the hypotheses are satisfiable; on these documents model macro = eval also by plain computation ---- *)
Example ex_mixed_ok : macro_supported ex_mixed = true /\ exists t, eval ex_mixed = Some t /\ macro_eval (tokens_of ex_mixed) = EOk t.
Proof. split; [reflexivity|]. eexists; split; vm_compute; reflexivity. Qed.
Example ex_datetimes_ok : macro_supported ex_datetimes = true /\ exists t, eval ex_datetimes = Some t /\ macro_eval (tokens_of ex_datetimes) = EOk t.
Proof. split; [reflexivity|]. eexists; split; vm_compute; reflexivity. Qed.
Example ex_numbers_ok : macro_supported ex_numbers = true /\ exists t, eval ex_numbers = Some t /\ macro_eval (tokens_of ex_numbers) = EOk t.
Proof. split; [reflexivity|]. eexists; split; vm_compute; reflexivity. Qed.
Example ex_negative_ok : macro_supported ex_negative = true /\ exists t, eval ex_negative = Some t /\ macro_eval (tokens_of ex_negative) = EOk t.
Proof. split; [reflexivity|]. eexists; split; vm_compute; reflexivity. Qed.
Example ex_aot_ok : macro_supported ex_aot = true /\ exists t, eval ex_aot = Some t /\ macro_eval (tokens_of ex_aot) = EOk t.
Proof. split; [reflexivity|]. eexists; split; vm_compute; reflexivity. Qed.
(* the theorem applied (not recomputed) *)
Example ex_mixed_by_theorem : forall t, eval ex_mixed = Some t -> macro_eval (tokens_of ex_mixed) = EOk t.
Proof. intros t H. apply C19_macro_eq_parse; [reflexivity|exact H]. Qed.
(* the matcher's greedy choice is the only one for these rule heads (no local ambiguity for rustc's NFA) *)
Example heads_deterministic_ok : heads_deterministic = true.
Proof. vm_compute; reflexivity. Qed.
