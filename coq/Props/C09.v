(* Props/C09.v — property C09: no key or table definition is ever silently overwritten or
   merged.  Statements only; the proofs are in Proofs/DefsEquiv*.v.

     spec        Spec/Defs.v      spec_run : list stmt -> Valid tree | Invalid | Undecided (U1)
     code        run_state        ParseState::new, then on_std_header / on_array_header /
                                  on_keyval per statement, then into_document's finalize_table
     erase       forgets key spellings / decor (keeps Key::get()), header decor and spans
     abs_tbl     forgets decor, spans, positions, key spellings; flags -> kinds

   Statement paths are non-empty by construction (MHeader / MKeyVal carry prefix and last key),
   which is what the grammar guarantees (`key` = separated1). *)
From TV Require Import Base.Prelude Base.Winnow Model.Tree Model.Parse Spec.Defs.
From TV Require Import Proofs.DefsEquivBase Proofs.DefsEquivSpec Proofs.DefsEquivKv Proofs.DefsEquivMain
                       Proofs.DefsEquivInline.

(* Everything TOML forbids is rejected (as an error, not a panic). *)
Theorem C09_invalid_rejected : forall ms : list mstmt,
  spec_run (map erase ms) = Invalid -> exists c, run_state ms = CErr c.
Proof. exact invalid_rejected. Qed.
Print Assumptions C09_invalid_rejected.

(* Everything TOML permits is accepted and yields the merged tree: same keys, nesting, order,
   values, and the same table kinds. *)
Theorem C09_valid_merged : forall (ms : list mstmt) (t : stree value),
  spec_run (map erase ms) = Valid t -> exists r, run_state ms = COk r /\ abs_tbl r = t.
Proof. exact valid_merged. Qed.
Print Assumptions C09_valid_merged.

(* ... and that tree has unique keys per table, no empty array of tables, no Item::None and no
   dotted array element (so abs_tbl loses nothing but decoration on it). *)
Theorem C09_valid_wellformed : forall (ms : list mstmt) (t : stree value),
  spec_run (map erase ms) = Valid t ->
  exists r, run_state ms = COk r /\ abs_tbl r = t /\ mok_tbl r = true /\ swf_tree t = true.
Proof. exact valid_wellformed. Qed.
Print Assumptions C09_valid_wellformed.

(* For ALL statement sequences, class U1 included: assert!(root.is_empty()), unreachable!() on
   Item::None, the empty array of tables and the three debug_assert!s are unreachable. *)
Theorem C09_no_panic : forall (ms : list mstmt) (s : site), run_state ms <> CPanic s.
Proof. exact no_panic. Qed.
Print Assumptions C09_no_panic.

(* For ALL statement sequences, class U1 included, the verdict and the resulting tree depend
   only on the decoded keys (quoted vs bare spelling, decor and spans are irrelevant). *)
Theorem C09_spelling_irrelevant : forall ms1 ms2 : list mstmt,
  map erase ms1 = map erase ms2 ->
  match run_state ms1, run_state ms2 with
  | COk r1, COk r2 => abs_tbl r1 = abs_tbl r2
  | CErr _, CErr _ => True
  | _, _ => False
  end.
Proof. exact spelling_irrelevant. Qed.
Print Assumptions C09_spelling_irrelevant.

(* What the pinned code does on every sequence, U1 included: it is `code_run`, the spec with
   the U1 case resolved as "reject if the super-table would receive the key, otherwise walk
   through it"; `code_run` is never Undecided and equals `spec_run` wherever that decides. *)
Theorem C09_code_verdict : forall ms : list mstmt,
  match code_run (map erase ms) with
  | Valid t => exists r, run_state ms = COk r /\ abs_tbl r = t
  | Invalid => exists c, run_state ms = CErr c
  | Undecided => False
  end.
Proof. exact code_verdict. Qed.
Print Assumptions C09_code_verdict.

Theorem C09_code_refines_spec : forall l : list (stmt value),
  spec_run l <> Undecided -> code_run l = spec_run l.
Proof. exact spec_run_code_run. Qed.
Print Assumptions C09_code_refines_spec.

Theorem C09_u1_classifier : forall l : list (stmt value), u1_b l = true <-> spec_run l = Undecided.
Proof. exact u1_b_spec. Qed.
Print Assumptions C09_u1_classifier.

(* Inline tables: table_from_pairs on the pairs of one inline table (values are Item::Value
   and not marked implicit, which is what the parser passes) follows the same rules inside
   one closed table; the `entry_format` panic site is unreachable. *)
Theorem C09_inline : forall l : list ipair,
  pairs_closed l ->
  match inline_run (erase_pairs l) with
  | Some t => exists m, table_from_pairs_loop [] (to_pairs l) = COk m /\ absi_items m = t
  | None => exists c, table_from_pairs_loop [] (to_pairs l) = CErr c
  end.
Proof. exact inline_correct. Qed.
Print Assumptions C09_inline.

Theorem C09_inline_no_panic : forall (l : list ipair) (s : site),
  pairs_closed l -> table_from_pairs_loop [] (to_pairs l) <> CPanic s.
Proof. exact inline_no_panic. Qed.
Print Assumptions C09_inline_no_panic.

(* ---- class U1: outside the claims above, recorded so that a change is visible --------------- *)
(* [a.b.c] / [a] / b.x = 1 : the pinned code rejects *)
Definition u1_first : list mstmt :=
  [m_hdr false [x61; x62; x63]; m_hdr false [x61]; m_kv [x62; x78] (tval 1)].
(* [a.b.c] / [a] / b.q.x = 1 : the pinned code accepts *)
Definition u1_second : list mstmt :=
  [m_hdr false [x61; x62; x63]; m_hdr false [x61]; m_kv [x62; x71; x78] (tval 1)].

Example C09_u1_examples :
  u1_b (map erase u1_first) = true /\ run_state u1_first = CErr DuplicateKey /\
  u1_b (map erase u1_second) = true /\
  (exists r, run_state u1_second = COk r /\
     abs_tbl r = [([x61], NTab KHeader [([x62], NTab KSuper [([x63], NTab KHeader []);
                                                            ([x71], NTab KDotted [([x78], NVal (tval 1))])])])]).
Proof.
  split; [vm_compute; reflexivity|]. split; [vm_compute; reflexivity|].
  split; [vm_compute; reflexivity|]. eexists. split; vm_compute; reflexivity.
Qed.

(* ---- non-vacuity ------------------------------------------------------------------------------ *)
(*  [a.b.c]      x = 1
    [a]          d.e = 2     d.f = 3          super-table after its sub-table; dotted keys
    [a.d.g]      y = 4                        sub-table under a table made by dotted keys
    [[t]]        n.m = 5
    [t.s]        z = 6                        table nested in the newest element
    [[t]]
    [t.s]        z = 7 *)
Definition ex_valid : list mstmt :=
  [ m_hdr false [x61; x62; x63];  m_kv [x78] (tval 1);
    m_hdr false [x61];            m_kv [x64; x65] (tval 2); m_kv [x64; x66] (tval 3);
    m_hdr false [x61; x64; x67];  m_kv [x79] (tval 4);
    m_hdr true [x74];             m_kv [x6e; x6d] (tval 5);
    m_hdr false [x74; x73];       m_kv [x7a] (tval 6);
    m_hdr true [x74];
    m_hdr false [x74; x73];       m_kv [x7a] (tval 7) ].

Definition ex_valid_tree : stree value :=
  [([x61], NTab KHeader
      [([x62], NTab KSuper [([x63], NTab KHeader [([x78], NVal (tval 1))])]);
       ([x64], NTab KDotted [([x65], NVal (tval 2)); ([x66], NVal (tval 3));
                             ([x67], NTab KHeader [([x79], NVal (tval 4))])])]);
   ([x74], NAot [ [([x6e], NTab KDotted [([x6d], NVal (tval 5))]);
                   ([x73], NTab KHeader [([x7a], NVal (tval 6))])];
                  [([x73], NTab KHeader [([x7a], NVal (tval 7))])] ])].

Example C09_ex_valid :
  spec_run (map erase ex_valid) = Valid ex_valid_tree /\
  exists r, run_state ex_valid = COk r /\ abs_tbl r = ex_valid_tree.
Proof. split; [vm_compute; reflexivity|]. eexists. split; vm_compute; reflexivity. Qed.

(* one invalid sequence of each forbidden kind: the spec says Invalid, the code errs *)
Definition rejected (ms : list mstmt) (c : custom) : Prop :=
  spec_run (map erase ms) = Invalid /\ run_state ms = CErr c.
Ltac rej := split; vm_compute; reflexivity.

Definition v_inline : value := inline_new.                                          (* {}  *)
Definition v_array : value := VArray [] REmpty false decor_default None.            (* []  *)

(* a = 1 / a = 2 *)
Example C09_ex_duplicate_key : rejected [m_kv [x61] (tval 1); m_kv [x61] (tval 2)] DuplicateKey.
Proof. rej. Qed.
(* a.b = 1 / a.b = 2 *)
Example C09_ex_duplicate_dotted_key : rejected [m_kv [x61; x62] (tval 1); m_kv [x61; x62] (tval 2)] DuplicateKey.
Proof. rej. Qed.
(* [a] / [a] *)
Example C09_ex_header_repeated : rejected [m_hdr false [x61]; m_hdr false [x61]] DuplicateKey.
Proof. rej. Qed.
(* [a] / [b] / [a] *)
Example C09_ex_header_repeated_later :
  rejected [m_hdr false [x61]; m_hdr false [x62]; m_hdr false [x61]] DuplicateKey.
Proof. rej. Qed.
(* [a.b] / [a] / b.x = 1 : a dotted key reopening an explicitly defined table *)
Example C09_ex_dotted_reopens_header :
  rejected [m_hdr false [x61; x62]; m_hdr false [x61]; m_kv [x62; x78] (tval 1)] DuplicateKey.
Proof. rej. Qed.
(* a.b = 1 / [a] : a header reopening a table created by dotted keys *)
Example C09_ex_header_reopens_dotted : rejected [m_kv [x61; x62] (tval 1); m_hdr false [x61]] DuplicateKey.
Proof. rej. Qed.
(* [a] / b.c = 1 / [a.b] : the same, below a section *)
Example C09_ex_header_reopens_dotted_sub :
  rejected [m_hdr false [x61]; m_kv [x62; x63] (tval 1); m_hdr false [x61; x62]] DuplicateKey.
Proof. rej. Qed.
(* a = {} / a.b = 1   and   a = {} / [a]   and   a = {} / [a.b] : extending an inline table *)
Example C09_ex_extend_inline_dotted : rejected [m_kv [x61] v_inline; m_kv [x61; x62] (tval 1)] ExtendWrongType.
Proof. rej. Qed.
Example C09_ex_extend_inline_header : rejected [m_kv [x61] v_inline; m_hdr false [x61]] DuplicateKey.
Proof. rej. Qed.
Example C09_ex_extend_inline_subheader : rejected [m_kv [x61] v_inline; m_hdr false [x61; x62]] ExtendWrongType.
Proof. rej. Qed.
(* a = [] / [[a]] : appending to a static array *)
Example C09_ex_extend_static_array : rejected [m_kv [x61] v_array; m_hdr true [x61]] DuplicateKey.
Proof. rej. Qed.
(* a = 1 / a.b = 2   and   a = 1 / [a.b] : extending a scalar *)
Example C09_ex_extend_scalar_dotted : rejected [m_kv [x61] (tval 1); m_kv [x61; x62] (tval 2)] ExtendWrongType.
Proof. rej. Qed.
Example C09_ex_extend_scalar_header : rejected [m_kv [x61] (tval 1); m_hdr false [x61; x62]] ExtendWrongType.
Proof. rej. Qed.
(* [a] / [[a]]   and   [a.b] / [[a]]   and   a = 1 / [[a]]   and   [[a]] / [a] *)
Example C09_ex_aot_vs_table : rejected [m_hdr false [x61]; m_hdr true [x61]] DuplicateKey.
Proof. rej. Qed.
Example C09_ex_aot_vs_super_table : rejected [m_hdr false [x61; x62]; m_hdr true [x61]] DuplicateKey.
Proof. rej. Qed.
Example C09_ex_aot_vs_value : rejected [m_kv [x61] (tval 1); m_hdr true [x61]] DuplicateKey.
Proof. rej. Qed.
Example C09_ex_table_vs_aot : rejected [m_hdr true [x61]; m_hdr false [x61]] DuplicateKey.
Proof. rej. Qed.
(* [[a.b]] / [a] / b.x = 1   and   b.c.x = 1 : a dotted key reaching into an array of tables *)
Example C09_ex_dotted_into_aot :
  rejected [m_hdr true [x61; x62]; m_hdr false [x61]; m_kv [x62; x78] (tval 1)] DuplicateKey.
Proof. rej. Qed.
Example C09_ex_dotted_through_aot :
  rejected [m_hdr true [x61; x62]; m_hdr false [x61]; m_kv [x62; x63; x78] (tval 1)] DuplicateKey.
Proof. rej. Qed.

(* inline tables:  { a.b = 1, a.c = 2, d = {} }  is accepted;  { a.b = 1, a.b = 2 },
   { a = {}, a.b = 1 } and { a = 1, a = 2 } are rejected *)
Example C09_ex_inline_valid :
  let l : list ipair := [([tkey x61], (tkey x62, tval 1)); ([tkey x61], (tkey x63, tval 2)); ([], (tkey x64, v_inline))] in
  pairs_closed l /\
  inline_run (erase_pairs l) =
    Some [([x61], NTab KDotted [([x62], NVal (tval 1)); ([x63], NVal (tval 2))]); ([x64], NVal v_inline)] /\
  exists m, table_from_pairs_loop [] (to_pairs l) = COk m.
Proof.
  split; [repeat constructor|]. split; [vm_compute; reflexivity|]. eexists. vm_compute. reflexivity.
Qed.

Example C09_ex_inline_invalid :
  let l1 : list ipair := [([tkey x61], (tkey x62, tval 1)); ([tkey x61], (tkey x62, tval 2))] in
  let l2 : list ipair := [([], (tkey x61, v_inline)); ([tkey x61], (tkey x62, tval 1))] in
  let l3 : list ipair := [([], (tkey x61, tval 1)); ([], (tkey x61, tval 2))] in
  (pairs_closed l1 /\ inline_run (erase_pairs l1) = None /\ table_from_pairs_loop [] (to_pairs l1) = CErr DuplicateKey) /\
  (pairs_closed l2 /\ inline_run (erase_pairs l2) = None /\ table_from_pairs_loop [] (to_pairs l2) = CErr DuplicateKey) /\
  (pairs_closed l3 /\ inline_run (erase_pairs l3) = None /\ table_from_pairs_loop [] (to_pairs l3) = CErr DuplicateKey).
Proof.
  repeat split; try (repeat constructor; fail); vm_compute; reflexivity.
Qed.
