(* Props/C01doc.v — property C01, the whole-document theorems: the parser accepts exactly the
   valid TOML 1.0.0 documents.

     toml_text s stmts   the text s (after an optional UTF-8 byte-order mark) has a derivation
                         toml = expression *( newline expression ) of toml.abnf v1.0.0 making
                         the statements stmts (Spec/Syntax.v over the tokens of Spec/Lex.v);
     verdict stmts       the definition rules of Spec/Defs.v applied to them (and to every inline
                         table in their values): Valid tree | Invalid | Undecided (class U1,
                         DESIGN.md 3.3);
     within_limits stmts the implementation limits of DESIGN.md 3.4 (i64, binary64 overflow,
                         nesting and key-path lengths below LIMIT).

   Statements only; proofs in Proofs/Grammar*.v (L2: the recursive grammar against value.rs /
   array.rs / inline_table.rs / key.rs / document.rs / table.rs with winnow's ordered choice,
   cut_err and separated semantics) on top of Proofs/LexEquiv*.v (L1, Props/C01tokens.v) and
   Proofs/DefsEquiv*.v (L3, Props/C09.v). *)
From TV Require Import Base.Prelude Base.Winnow Spec.Defs Spec.Syntax.
From TV Require Import Model.Parse Model.Document.
From TV Require Import Proofs.LexEquivBase Proofs.GrammarValueBase Proofs.GrammarValueComplete
  Proofs.GrammarTop.

(* Everything the parser accepts is a TOML text whose statements the specification does not
   forbid, within the limits. *)
Theorem C01_sound : forall s d, parse_document s = POk d ->
  exists stmts, toml_text s stmts /\ verdict stmts <> Invalid /\ within_limits stmts = true.
Proof. exact c01_sound. Qed.
Print Assumptions C01_sound.

(* Every TOML text whose statements are valid (and not in class U1) is accepted, provided it is
   within the limits. *)
Theorem C01_complete : forall s stmts T, toml_text s stmts -> verdict stmts = Valid T -> within_limits stmts = true ->
  exists d, parse_document s = POk d.
Proof. exact c01_complete. Qed.
Print Assumptions C01_complete.

(* A valid, non-U1 text is refused only because of the implementation limits. *)
Theorem C01_only_limits_refused : forall s stmts T, toml_text s stmts -> verdict stmts = Valid T ->
  (forall d, parse_document s <> POk d) -> within_limits stmts = false.
Proof. exact c01_only_limits_refused. Qed.
Print Assumptions C01_only_limits_refused.

(* Conversely: a text with a derivation that the specification forbids (a key or table defined
   twice, a value extended, an ill-defined inline table, ...), or that is outside the limits, is
   refused — whatever other reading of the text one might try: the parser's ordered choices,
   `cut_err` commitments and `separated` loops never recover from such a statement. *)
Theorem C01_invalid_rejected : forall s stmts, toml_text s stmts ->
  verdict stmts = Invalid \/ within_limits stmts = false -> forall d, parse_document s <> POk d.
Proof. exact c01_invalid_rejected. Qed.
Print Assumptions C01_invalid_rejected.

(* "accepts exactly": on any derivation of the text outside class U1, acceptance is validity
   within the limits.  (A text without any derivation is refused by C01_sound.) *)
Theorem C01_exact : forall s stmts, toml_text s stmts -> verdict stmts <> Undecided ->
  ((exists d, parse_document s = POk d) <-> ((exists T, verdict stmts = Valid T) /\ within_limits stmts = true)).
Proof. exact c01_exact. Qed.
Print Assumptions C01_exact.

(* ---- values (value.rs `value`, the entry point of arrays, inline tables, key/value lines and
   Value::from_str) --------------------------------------------------------------------------------
     val_tok t a     t is a `val` of the grammar denoting the abstract value a;
     vfollow r       r can follow a value: optional whitespace, then the end of the text, a comment,
                     a newline, "," "]" or "}";
     aval_ok a       every inline table in a obeys the definition rules;
     within d a      the limits, d arrays / inline tables being open around the value;
     vrel d v a      the tree value v carries exactly the data a denotes (absv v = den a), a is
                     well-defined and within the limits, v holds values only. *)
Theorem C01_value_complete : forall t a i r,
  val_tok t a -> rest i = t ++ r -> vfollow r -> aval_ok a = true -> within (depth i) a = true ->
  exists v, value_ i = Ok v (adv t i) /\ vrel (depth i) v a.
Proof. exact value_complete. Qed.
Print Assumptions C01_value_complete.

(* an ill-defined value, or one outside the limits, is refused with commitment *)
Theorem C01_value_rejected : forall t a i r,
  val_tok t a -> rest i = t ++ r -> vfollow r -> aval_ok a && within (depth i) a = false ->
  exists e j, value_ i = Cut e j.
Proof. exact value_reject. Qed.
Print Assumptions C01_value_rejected.

(* ---- non-vacuity ------------------------------------------------------------------------------ *)
(* a=1 : a derivation, valid, within the limits *)
Example C01_ex_derivation :
  let s := [x61; x3d; x31] in
  let stmts := [SKeyVal [[x61]] (AInt 1)] in
  toml_text s stmts /\ verdict stmts = Valid [([x61], NVal (DInt 1))] /\ within_limits stmts = true
  /\ exists d, parse_document s = POk d.
Proof.
  cbv zeta. split; [|split; [vm_compute; reflexivity|split; [vm_compute; reflexivity|eexists; vm_compute; reflexivity]]].
  unfold toml_text. change (strip_bom [x61; x3d; x31]) with ([] ++ [x61; x3d; x31] ++ [] ++ @nil byte).
  apply toml_one, ex_keyval; [reflexivity| |reflexivity|left; reflexivity].
  exists [x61], [], [], [x31]. split; [reflexivity|]. split; [|split; [reflexivity|split; [reflexivity|]]].
  - apply key_one. right. right. split; [split; [discriminate|reflexivity]|reflexivity].
  - apply v_integer. left. exists [], false, [x31], [x31]. split; [reflexivity|]. split; [left; auto|].
    split; [|reflexivity]. left. exists x31. auto.
Qed.

(* a = [1, [2, {b.c = "x"}], ]   (trailing comma, nested array, inline table with a dotted key) is accepted *)
Example C01_ex_accepted :
  exists d, parse_document [x61; x20; x3d; x20; x5b; x31; x2c; x20; x5b; x32; x2c; x20; x7b; x62; x2e; x63; x20; x3d;
                            x20; x22; x78; x22; x7d; x5d; x2c; x20; x5d] = POk d.
Proof. eexists. vm_compute. reflexivity. Qed.

(* a = [1, 2, ] followed by a newline: `separated` gives the comma back to opt(',') *)
Example C01_ex_trailing_comma :
  exists d, parse_document [x61; x20; x3d; x20; x5b; x31; x2c; x20; x32; x2c; x20; x5d; x0a] = POk d.
Proof. eexists. vm_compute. reflexivity. Qed.

(* a = [1,,2] is refused (a committed failure at the second comma) *)
Example C01_ex_rejected :
  exists e at_, parse_document [x61; x20; x3d; x20; x5b; x31; x2c; x2c; x32; x5d] = PErr e at_.
Proof. eexists _, _. vm_compute. reflexivity. Qed.
