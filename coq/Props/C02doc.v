(* Props/C02doc.v — property C02, the whole-document theorems: decoded data is exactly what the
   document says.

     abs_doc d          the data of the parsed document: keys, nesting, order, table kinds
                        (header / super / dotted, Spec/Defs.v), every scalar (Proofs/GrammarBase.v:
                        decor, reprs, spans, key spellings are forgotten);
     verdict stmts = Valid T   T is the tree the statements denote: Spec/Defs.v's fold, every value
                        replaced by its datum (`den`: an inline table denotes the table its
                        key/value pairs define; floats are the exact decimal written).

   Statements only; proofs in Proofs/Grammar*.v. *)
From TV Require Import Base.Prelude Base.Winnow Spec.Lex Spec.Defs Spec.Syntax.
From TV Require Import Model.Parse Model.Document.
From TV Require Import Proofs.LexEquivBase Proofs.GrammarBase Proofs.GrammarValueBase Proofs.GrammarValueSound Proofs.GrammarTop.

(* The tree of an accepted document is the tree its statements denote — for EVERY derivation of
   the text whose statements are valid: keys, nesting, order, table kinds, every scalar (strings
   after escape processing, integers, the exact decimal of floats, date-time fields), arrays
   element by element, inline tables as the tables their pairs define. *)
Theorem C02_tree : forall s d stmts T,
  parse_document s = POk d -> toml_text s stmts -> verdict stmts = Valid T -> abs_doc d = T.
Proof. exact c02_tree. Qed.
Print Assumptions C02_tree.

(* in particular all valid derivations of an accepted text denote the same tree *)
Theorem C02_derivations_agree : forall s d l1 l2 T1 T2,
  parse_document s = POk d -> toml_text s l1 -> toml_text s l2 -> verdict l1 = Valid T1 -> verdict l2 = Valid T2 -> T1 = T2.
Proof. exact c02_derivations_agree. Qed.
Print Assumptions C02_derivations_agree.

(* For every accepted document there is a derivation of its text, within the limits, whose
   statements denote exactly the tree that was built: under the specification whenever that
   decides, and under the pinned code's resolution of class U1 (code_run, Props/C09.v) always. *)
Theorem C02_tree_witness : forall s d, parse_document s = POk d ->
  exists stmts, toml_text s stmts /\ within_limits stmts = true /\ verdict stmts <> Invalid
                /\ (forall T, verdict stmts = Valid T -> abs_doc d = T)
                /\ code_run (map stmt_den stmts) = Valid (abs_doc d).
Proof. exact c02_tree_witness. Qed.
Print Assumptions C02_tree_witness.

(* ---- values ------------------------------------------------------------------------------------- *)
(* whatever `value` accepts is a `val` of the grammar, and the tree value carries exactly the data
   it denotes (vrel: absv v = den a, a well-defined and within the limits) *)
Theorem C02_value_sound : forall i v i', value_ i = Ok v i' ->
  exists t a, val_tok t a /\ splits i t i' /\ vrel (depth i) v a.
Proof. exact value_sound. Qed.
Print Assumptions C02_value_sound.

(* ---- examples ----------------------------------------------------------------------------------- *)
(* a = [1, [2, {b.c = "x"}], ] *)
Example C02_ex_nested :
  exists d, parse_document [x61; x20; x3d; x20; x5b; x31; x2c; x20; x5b; x32; x2c; x20; x7b; x62; x2e; x63; x20; x3d;
                            x20; x22; x78; x22; x7d; x5d; x2c; x20; x5d] = POk d
    /\ abs_doc d = [([x61], NVal (DArr [DInt 1; DArr [DInt 2; DTab [([x62], DTab [([x63], DStr [x78])])]]]))]
    /\ verdict [SKeyVal [[x61]] (AArr [AInt 1; AArr [AInt 2; AInl [([[x62]; [x63]], AStr [x78])]]])]
       = Valid (abs_doc d).
Proof. eexists. split; [vm_compute; reflexivity|]. split; vm_compute; reflexivity. Qed.

(* [x] / y.z = 1e3 # c / [[t]] : header, dotted key, exact decimal float, array of tables *)
Example C02_ex_tables :
  exists d, parse_document [x5b; x78; x5d; x0a; x79; x2e; x7a; x20; x3d; x20; x31; x65; x33; x20; x23; x20; x63; x0a;
                            x5b; x5b; x74; x5d; x5d; x0a] = POk d
    /\ abs_doc d = [([x78], NTab KHeader [([x79], NTab KDotted [([x7a], NVal (DFloat (FDec false 1 3)))])]);
                    ([x74], NAot [[]])].
Proof. eexists. split; vm_compute; reflexivity. Qed.

(* class U1 ([a.b.c] / [a] / b.x = 1): outside the claims of C01_complete / C02_tree (verdict
   is Undecided); the pinned code rejects it, recorded so that a change is visible *)
Example C02_ex_u1 :
  verdict [SHeader [[x61]; [x62]; [x63]]; SHeader [[x61]]; SKeyVal [[x62]; [x78]] (AInt 1)] = Undecided
  /\ exists e at_, parse_document [x5b; x61; x2e; x62; x2e; x63; x5d; x0a; x5b; x61; x5d; x0a; x62; x2e; x78; x20; x3d; x20; x31]
                   = PErr e at_.
Proof. split; [vm_compute; reflexivity|]. eexists _, _. vm_compute. reflexivity. Qed.
