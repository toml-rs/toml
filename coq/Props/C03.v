(* Props/C03.v — Unedited documents print back byte-for-byte: the CR stripping that Display applies to every
   stored text.  The whole-document theorems are in Props/C03exact.v (tiling, exactness), Props/C03more.v
   (comments, fragments) and Props/WFbackbone.v (general clause). *)
From TV Require Import Base.Prelude Model.Encode.

(* the CR stripping of RawString::encode_with_default never changes a text without CR, and is idempotent *)
Lemma strip_cr_idem s : strip_cr (strip_cr s) = strip_cr s.
Proof.
  unfold strip_cr. induction s as [|b s IH]; [reflexivity|].
  cbn [filter]. destruct (negb (byte_eqb b x0d)) eqn:E; cbn [filter]; [rewrite E, IH; reflexivity | exact IH].
Qed.
Lemma strip_cr_no_cr s : forallb (fun b => negb (byte_eqb b x0d)) s = true -> strip_cr s = s.
Proof.
  unfold strip_cr. induction s as [|b s IH]; [reflexivity|].
  cbn [forallb filter]. intro H. apply andb_true_iff in H as [H1 H2]. rewrite H1, (IH H2). reflexivity.
Qed.

Theorem C03_cr_stripping : forall s,
  strip_cr (strip_cr s) = strip_cr s /\ (forallb (fun b => negb (byte_eqb b x0d)) s = true -> strip_cr s = s).
Proof. intro s; split; [exact (strip_cr_idem s) | exact (strip_cr_no_cr s)]. Qed.
Print Assumptions C03_cr_stripping.
