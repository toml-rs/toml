(* Props/C16.v — Tables, arrays and maps obey ordered-container laws under any call sequence.

   `run step s h` replays the history h (a list of calls) from state s and returns the final
   state and the list of what every call returned.  Model: Model/Containers.v (tstep / pstep /
   vstep transcribe the Rust methods over the raw entries, placeholders included).  Reference:
   Spec/Ordered.v (ref_step / vref_step on a plain list of pairs / list).

   An `Item::None` placeholder left by an earlier `&mut c[k]` is absent for every call: the read
   accessors filter it, and every write / entry path first drops it (`remove_placeholder`, the repair
   of finding C16-placeholder-residue; Model/Containers.v `prep`).  The refinement theorems below
   therefore hold for ALL histories; the histories that were counterexamples before the repair are
   kept as regression examples at the end. *)
From TV Require Import Base.Prelude Spec.Ordered Model.Containers Proofs.ContainersRefine.

Theorem C16_table : forall h,
  snd (run (tstep KTable) [] h) = snd (run (ref_step KTable) [] h) /\
  forall ks, tobserve KTable ks (fst (run (tstep KTable) [] h))
             = ref_observe KTable ks (fst (run (ref_step KTable) [] h)).
Proof. exact (fun h => table_like_refines KTable h (or_introl eq_refl)). Qed.
Print Assumptions C16_table.

Theorem C16_inline : forall h,
  snd (run (tstep KInline) [] h) = snd (run (ref_step KInline) [] h) /\
  forall ks, tobserve KInline ks (fst (run (tstep KInline) [] h))
             = ref_observe KInline ks (fst (run (ref_step KInline) [] h)).
Proof. exact (fun h => table_like_refines KInline h (or_intror (or_introl eq_refl))). Qed.
Print Assumptions C16_inline.

Theorem C16_inline_tablelike : forall h,
  snd (run (tstep KInlineTL) [] h) = snd (run (ref_step KInlineTL) [] h) /\
  forall ks, tobserve KInlineTL ks (fst (run (tstep KInlineTL) [] h))
             = ref_observe KInlineTL ks (fst (run (ref_step KInlineTL) [] h)).
Proof. exact (fun h => table_like_refines KInlineTL h (or_intror (or_intror eq_refl))). Qed.
Print Assumptions C16_inline_tablelike.

(* after ANY history what the TableLike view of
   an inline table shows (len, is_empty, iter, get, contains_key, printed entries) is exactly the
   list of real entries: the repaired F11. *)
Theorem C16_inline_tablelike_view : forall h ks,
  tobserve KInlineTL ks (fst (run (tstep KInlineTL) [] h))
  = ref_observe KInlineTL ks (abs (fst (run (tstep KInlineTL) [] h))).
Proof. exact (fun h ks => table_like_view KInlineTL h ks (or_intror (or_intror eq_refl))). Qed.
Print Assumptions C16_inline_tablelike_view.

Theorem C16_array : forall h,
  snd (run (vstep KArray) [] h) = snd (run (vref_step KArray) [] h) /\
  vobserve (fst (run (vstep KArray) [] h)) = vref_observe (fst (run (vref_step KArray) [] h)).
Proof. exact (vec_refines KArray). Qed.
Print Assumptions C16_array.

Theorem C16_aot : forall h,
  snd (run (vstep KAot) [] h) = snd (run (vref_step KAot) [] h) /\
  vobserve (fst (run (vstep KAot) [] h)) = vref_observe (fst (run (vref_step KAot) [] h)).
Proof. exact (vec_refines KAot). Qed.
Print Assumptions C16_aot.

Theorem C16_map_sorted : forall h,
  snd (run (pstep KMapSorted) [] h) = snd (run (ref_step KMapSorted) [] h) /\
  forall ks, pobserve ks (fst (run (pstep KMapSorted) [] h))
             = ref_observe KMapSorted ks (fst (run (ref_step KMapSorted) [] h)).
Proof. exact (fun h => map_refines KMapSorted h (or_introl eq_refl)). Qed.
Print Assumptions C16_map_sorted.

Theorem C16_map_ordered : forall h,
  snd (run (pstep KMapOrdered) [] h) = snd (run (ref_step KMapOrdered) [] h) /\
  forall ks, pobserve ks (fst (run (pstep KMapOrdered) [] h))
             = ref_observe KMapOrdered ks (fst (run (ref_step KMapOrdered) [] h)).
Proof. exact (fun h => map_refines KMapOrdered h (or_intror eq_refl)). Qed.
Print Assumptions C16_map_ordered.

(* placeholders are invisible to len / is_empty / iter / get / contains_key / printed entries:
   in every reachable state (any history) of a Table, an InlineTable and
   the TableLike view of an InlineTable, removing the placeholders physically changes nothing *)
Theorem C16_placeholder : forall kd h ks,
  kd = KTable \/ kd = KInline \/ kd = KInlineTL ->
  tobserve kd ks (fst (run (tstep kd) [] h)) = tobserve kd ks (visible (fst (run (tstep kd) [] h))).
Proof. exact (fun kd h ks Hk => placeholders_invisible_reachable kd h ks Hk). Qed.
Print Assumptions C16_placeholder.

(* the same for every state with unique keys, reachable or not *)
Theorem C16_placeholder_state : forall kd ks c,
  kd = KTable \/ kd = KInline \/ kd = KInlineTL ->
  NoDup (map fst c) -> tobserve kd ks c = tobserve kd ks (visible c).
Proof. exact placeholders_invisible. Qed.
Print Assumptions C16_placeholder_state.

(* and EVERY call (reads, writes, entry API, index operators) made in any reachable state answers as
   the reference does on the real entries *)
Theorem C16_placeholder_calls : forall kd h o,
  kd = KTable \/ kd = KInline \/ kd = KInlineTL ->
  snd (tstep kd (fst (run (tstep kd) [] h)) o) = snd (ref_step kd (abs (fst (run (tstep kd) [] h))) o).
Proof. exact calls_blind. Qed.
Print Assumptions C16_placeholder_calls.

(* ---- the counterexamples of the placeholder class (finding C16-placeholder-residue, repaired) agree with the reference ---- *)
Theorem C16_table_regression :
  agrees KTable w_table_insert /\ agrees KTable w_table_or_insert /\ agrees KTable w_table_order.
Proof. exact (conj w_table_insert_agrees (conj w_table_or_insert_agrees w_table_order_agrees)). Qed.
Print Assumptions C16_table_regression.

Theorem C16_inline_regression : agrees KInline w_inline_entry /\ agrees KInline w_inline_goi.
Proof. exact (conj w_inline_entry_agrees w_inline_goi_agrees). Qed.
Print Assumptions C16_inline_regression.

Theorem C16_inline_tablelike_regression : agrees KInlineTL w_tl_entry.
Proof. exact w_tl_entry_agrees. Qed.
Print Assumptions C16_inline_tablelike_regression.

(* ---- non-vacuity: histories that DO create placeholders and leave them in the container ---- *)
Example C16_table_covers_placeholders :
  let h := [MIns ka (PInt 1); MIdxM kb; MIns ["c"%byte] PTab; MRm ka; MIdxM kb; MSort; MLen; MIter; MGet kb;
            MRet (PKeyNe ka); MSortBy CValAsc] in
  anyph (fst (run (tstep KTable) [] h)) = true.
Proof. vm_compute. reflexivity. Qed.

Example C16_inline_tablelike_covers_placeholders :
  let h := [MIdxM ka; MIns kb (PInt 1); MIter; MGet ka; MGetM ka; MLen; MEmp; MCk ka; MIdxM ka; MSort] in
  anyph (fst (run (tstep KInlineTL) [] h)) = true.
Proof. vm_compute. reflexivity. Qed.

Example C16_inline_covers_placeholders :
  let h := [MIdxM ka; MIns kb (PInt 1); MIter; MGet ka; MRm ka; MIdxM ka; MRet PAll; MIns ka (PInt 2)] in
  snd (run (tstep KInline) [] h) = snd (run (ref_step KInline) [] h).
Proof. vm_compute. reflexivity. Qed.

(* the repaired F11 witness: auto-vivify a placeholder in an inline table, then look through TableLike *)
Example C16_F11_witness_now_agrees :
  let h := [MIdxM ka; MLen; MEmp; MIter; MGet ka; MCk ka] in
  snd (run (tstep KInlineTL) [] h) = snd (run (ref_step KInlineTL) [] h)
  /\ snd (run (tstep KInlineTL) [] h) = [OItem INone; ONat 0; OBool true; OList []; OOpt None; OBool false].
Proof. vm_compute. split; reflexivity. Qed.

Example C16_sorted_map_is_sorted :
  snd (run (pstep KMapSorted) [] [MIns ["c"%byte] (PInt 1); MIns ka (PInt 2); MIns kb (PInt 3); MKeys])
  = [OOpt None; OOpt None; OOpt None; OKeys [ka; kb; ["c"%byte]]].
Proof. vm_compute. reflexivity. Qed.

(* Array::sort_by / sort_by_key are STABLE sorts (Vec::sort_by): the refinement theorem C16_array covers
   every comparator of the call vocabulary, among them `x mod 3` (VSortBy VMod3, VSortKey), under which
   most elements tie; on 24 elements (std's unstable sort would already reorder ties above 20):
   elements with the same residue keep their relative order *)
Example C16_array_sort_with_ties_is_stable :
  let l := [7; 3; 11; 9; 2; 16; 30; 4; 23; 12; 5; 19; 27; 8; 14; 21; 1; 25; 18; 10; 29; 6; 13; 24]%Z in
  snd (run (vstep KArray) [] [VFrom l; VSortBy VMod3; VIter; VSortKey; VIter])
  = [VOUnit; VOUnit; VOList [3; 9; 30; 12; 27; 21; 18; 6; 24; 7; 16; 4; 19; 1; 25; 10; 13; 11; 2; 23; 5; 8; 14; 29]%Z; VOUnit; VOList [3; 9; 30; 12; 27; 21; 18; 6; 24; 7; 16; 4; 19; 1; 25; 10; 13; 11; 2; 23; 5; 8; 14; 29]%Z]
  /\ snd (run (vstep KArray) [] [VFrom l; VSortBy VMod3; VIter; VSortKey; VIter])
     = snd (run (vref_step KArray) [] [VFrom l; VSortBy VMod3; VIter; VSortKey; VIter]).
Proof. vm_compute. split; reflexivity. Qed.
