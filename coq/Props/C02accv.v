(* Props/C02accv.v — property C02, the read API of toml::Value (type_str, same_type, is_x, as_x, get by index and key):
   Model/AccessorsToml.v, transcribed from crates/toml/src/value.rs; statements only, proofs in Proofs/AccessorsTomlSpec.v.
   The same functions print the `accv` observation compared with the crate on every run. *)
From TV Require Import Base.Prelude Spec.SerdeData Extract.Show Model.AccessorsToml.
From TV Require Import Proofs.AccessorsSpec Proofs.AccessorsTomlSpec.
Require Import String.

(* ---- toml::Value's read API (Model/AccessorsToml.v from crates/toml/src/value.rs) ---------------------------------- *)
Theorem C02acc_toml_kind_exclusive : forall v,
  count_true [tv_is_str v; tv_is_integer v; tv_is_float v; tv_is_bool v; tv_is_datetime v; tv_is_array v; tv_is_table v] = 1.
Proof. exact tv_kind_exclusive. Qed.
Print Assumptions C02acc_toml_kind_exclusive.
(* same_type is exactly "same type name": an equivalence whose classes are the seven kinds *)
Theorem C02acc_toml_same_type : forall a b, tv_same_type a b = true <-> tv_type_str a = tv_type_str b.
Proof. exact tv_same_type_spec. Qed.
Print Assumptions C02acc_toml_same_type.
Theorem C02acc_toml_same_type_equiv :
  (forall a, tv_same_type a a = true) /\ (forall a b, tv_same_type a b = tv_same_type b a)
  /\ (forall a b c, tv_same_type a b = true -> tv_same_type b c = true -> tv_same_type a c = true).
Proof. exact (conj tv_same_type_refl (conj tv_same_type_sym tv_same_type_trans)). Qed.
Print Assumptions C02acc_toml_same_type_equiv.
Theorem C02acc_toml_as : forall v,
  (forall s, tv_as_str v = Some s <-> v = VStr s) /\ (forall z, tv_as_integer v = Some z <-> v = VInt z)
  /\ (forall b, tv_as_float v = Some b <-> v = VFloat b) /\ (forall b, tv_as_bool v = Some b <-> v = VBool b)
  /\ (forall d, tv_as_datetime v = Some d <-> v = VDatetime d) /\ (forall xs, tv_as_array v = Some xs <-> v = VArr xs)
  /\ (forall es, tv_as_table v = Some es <-> v = VTab es).
Proof. exact tv_as_spec. Qed.
Print Assumptions C02acc_toml_as.
Theorem C02acc_toml_type_str : forall v,
  (tv_type_str v = str "string" <-> tv_is_str v = true) /\ (tv_type_str v = str "integer" <-> tv_is_integer v = true)
  /\ (tv_type_str v = str "float" <-> tv_is_float v = true) /\ (tv_type_str v = str "boolean" <-> tv_is_bool v = true)
  /\ (tv_type_str v = str "datetime" <-> tv_is_datetime v = true) /\ (tv_type_str v = str "array" <-> tv_is_array v = true)
  /\ (tv_type_str v = str "table" <-> tv_is_table v = true).
Proof. exact tv_type_str_flags. Qed.
Print Assumptions C02acc_toml_type_str.
Theorem C02acc_toml_get_index : forall xs i, tv_index_usize i (VArr xs) = nth_error xs i.
Proof. exact tv_index_usize_spec. Qed.
Print Assumptions C02acc_toml_get_index.
Theorem C02acc_toml_get_index_end : forall xs, tv_index_usize (List.length xs) (VArr xs) = None.
Proof. exact tv_index_usize_end. Qed.
Print Assumptions C02acc_toml_get_index_end.
Theorem C02acc_toml_get_key : forall es k v, NoDup (map fst es) -> In (k, v) es -> tv_index_str k (VTab es) = Some v.
Proof. exact tv_index_str_iter. Qed.
Print Assumptions C02acc_toml_get_key.
Theorem C02acc_toml_get_other : forall v,
  (forall i, tv_is_array v = false -> tv_index_usize i v = None) /\ (forall k, tv_is_table v = false -> tv_index_str k v = None).
Proof. exact (fun v => conj (tv_index_usize_other v) (tv_index_str_other v)). Qed.
Print Assumptions C02acc_toml_get_other.


(* toml::Map's iterators are double-ended: reading alternately from both ends (next, next_back, next, ...) hands out every
   entry exactly once - the sequence read is a permutation of the forward sequence (`alternate` is what accv prints) *)
Require Import Permutation.
Theorem C02acc_toml_alternate_reads_all : forall l : list bytes, Permutation (alternate (S (List.length l)) l) l.
Proof. exact alternate_reads_all. Qed.
Print Assumptions C02acc_toml_alternate_reads_all.
