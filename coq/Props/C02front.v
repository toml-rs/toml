(* Props/C02front.v — property C02, the clause "toml::from_str::<Value> decodes the same tree".

   canon_value true x   the value tree x of the parsed document with every table in ascending key order:
                        the same keys, nesting and scalars; toml::Value's map is a BTreeMap.  (Under the
                        feature preserve_order the map keeps the document's order instead; Model/SerdeRoutes.v
                        to_toml_value models the default configuration only, so does this statement.)
   tree_of_doc d        the value tree of the parsed document (Extract/SpannedTree.v st_tbl, spans
                        stripped) — the tree the serde correspondence of C07 / C13 / C14 runs on.  Its
                        relation to `abs_doc d` of Props/C02doc.v (the tree the statements denote, C02_tree)
                        is: same keys, nesting, order and scalars, table kinds and array-of-tables / array
                        distinction forgotten, for documents without Item::None and without floats.  That
                        relation is not proved in this file (it needs an induction over the toml_edit tree with
                        the well-formedness facts of parsed documents: Props/C01front2.v C01_tree_is_data), hence
                        `_partial`, as is `tree_ready` (Props/C01front.v). *)
From TV Require Import Base.Prelude Model.Datetime Model.Document Spec.SerdeData.
From TV Require Import Model.FrontEnds Proofs.FrontEnds Extract.Show.
Require Import String.
Open Scope string_scope.

(* toml::from_str::<toml::Value> yields exactly the document's tree, tables sorted by key.
   FULL STATEMENT (C02_serde): forall s d v, parse_document s = POk d -> toml_from_str_value s = Ok v ->
   v = value_of (abs_doc d), outside the private-key class: Props/C02front2.v, with tree_ready for parsed
   documents and tree_of_doc d = the value tree of abs_doc d. *)
Theorem C02_serde_partial : forall s d x v,
  parse_document s = POk d -> tree_of_doc d = Some x -> tree_ready x = true -> has_private_key x = false ->
  toml_from_str_value s = FOk v -> v = canon_value true x.
Proof. exact serde_value. Qed.
Print Assumptions C02_serde_partial.

(* str::parse::<toml::Table> / toml::from_str::<toml::Table> likewise (the root itself may spell the key) *)
Theorem C02_serde_table_partial : forall s d x v,
  parse_document s = POk d -> tree_of_doc d = Some x -> tree_ready x = true -> has_private_key_below_root x = false ->
  toml_from_str_table s = FOk v -> v = canon_value true x.
Proof. exact serde_table. Qed.
Print Assumptions C02_serde_table_partial.

(* inside the private-key class the decoded value can differ SILENTLY (known finding private-datetime-key):
   [t] / "$__toml_private_datetime" = "1979-05-27" / b = 1  decodes to t = 1979-05-27; the key b is lost *)
Theorem C02_serde_refuted :
  exists d x v, parse_document w_private_misread = POk d /\ tree_of_doc d = Some x /\ tree_ready x = true /\
                toml_from_str_value w_private_misread = FOk v /\ v <> canon_value true x /\
                v = VTab [(str "t", VDatetime (mkDT (Some (mkDate 1979 5 27)) None None))].
Proof. exact private_key_misread. Qed.
Print Assumptions C02_serde_refuted.

(* Examples: the hypotheses hold of parsed documents, and the decoded value is the sorted tree *)
Example C02_serde_example :
  exists d x, parse_document ex_doc = POk d /\ tree_of_doc d = Some x /\ tree_ready x = true /\ has_private_key x = false /\
              toml_from_str_value ex_doc = FOk (canon_value true x) /\
              canon_value true x
              = VTab [(str "a", VArr [VTab [(str "k", VBool true)]]);
                      (str "b", VTab [(str "x", VTab [(str "p", VStr (str "s")); (str "q", VArr [VInt 1; VInt 2])]);
                                      (str "y", VDatetime (mkDT (Some (mkDate 1979 5 27)) None None))]);
                      (str "z", VInt 1)].
Proof. exact serde_example. Qed.
