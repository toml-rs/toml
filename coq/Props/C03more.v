(* Props/C03more.v — property C03, second part: "where the printed text is not byte-identical to the
   source's normal form it keeps every comment".

   `comments` (Spec/Norm.v) is the parser-independent scanner's list of the comments of a text: the maximal
   runs of bytes labelled `comment`, each from its `#` to the end of its line, CR removed, in order.

   Proved here, for every text s that parses to d (no other hypothesis unless stated):

     C03_comments_normalized    comments (normalize s) = comments s                 — no side condition
     C03_comments_exact         laid_out' s (doc_root d)  ->  comments (render s d) = comments s, same order
     C03_comments_kept          vals_ok s (doc_root d) -> supers_bare (doc_root d) ->
                                Permutation (comments (render s d)) (comments s)
     C03_comments_kept_printed  the same for the text of `print_doc` (DocumentMut::to_string())
     C03_fragments_kept         under the same two conditions the printed text and the normal form of the
                                source are concatenations of the same fragments A ++ _ ++ B, one per header and
                                per key/value line, each used exactly once, possibly in another order; only
                                the key-path text in the middle may differ; the trailing text is the same.

   The two conditions of C03_comments_kept are decidable and weaker than `laid_out'` of C03_exact: they drop the
   order and the spelling checks (the F5 family: respelled dotted prefixes and headers; lines of one dotted
   prefix that are not adjacent — such documents print reordered / respelled and the theorem applies to them):
     vals_ok s r      every inline table written with dotted keys is laid out in the tree as in the source
                      (Proofs/PrintBackIValue.v `vok`; inline tables without dotted keys always pass);
     supers_bare r    no table that exists only as the super-table of a header (`a` of `[a.b]`) holds
                      key/value lines of its own (class U1 of the specification: `[a.b.c]` / `[a]` / `b.y = 1`).

   NOT covered (no dropped comment was found in either class; examples below, by computation):
     - documents in which an inline table with dotted keys prints its pairs in another order or respelled
       (vals_ok fails), e.g.  x = { a.b = [1, # c \n 2], c = 2, a.d = 3 };
     - documents in which a dotted key runs through a super-table (supers_bare fails): Display then prints a
       header that the source does not have.

   Statements only; proofs in Proofs/TilingCmt.v (scanner side) and Proofs/PrintBackFrag.v (printing side). *)
From TV Require Import Base.Prelude Spec.Norm.
From TV Require Import Model.Document.
From TV Require Import Proofs.PrintBackBase Proofs.PrintBackDespan Proofs.PrintBackDTop Proofs.PrintBackFrag.
Require Import Sorting.Permutation.

(* ---- normalising keeps the comments ------------------------------------------------------------------------ *)
Theorem C03_comments_normalized : forall s d, parse_document s = POk d -> comments (normalize s) = comments s.
Proof. exact normalize_comments. Qed.
Print Assumptions C03_comments_normalized.

(* ---- byte-exact documents: the same comments in the same order ---------------------------------------------- *)
Theorem C03_comments_exact : forall s d,
  parse_document s = POk d -> laid_out' s (doc_root d) = true -> comments (render s d) = comments s.
Proof. intros s d Hp Hl. rewrite (render_normalize_all s d Hp Hl). apply (normalize_comments s d Hp). Qed.
Print Assumptions C03_comments_exact.

(* ---- reordered / respelled documents: every comment exactly once ---------------------------------------------- *)
Theorem C03_comments_kept : forall s d,
  parse_document s = POk d -> vals_ok s (doc_root d) = true -> supers_bare (doc_root d) = true ->
  Permutation (comments (render s d)) (comments s).
Proof. exact doc_comments. Qed.
Print Assumptions C03_comments_kept.

Theorem C03_comments_kept_printed : forall s d o,
  parse_document s = POk d -> print_doc s d = Some o -> vals_ok s (doc_root d) = true -> supers_bare (doc_root d) = true ->
  Permutation (comments o) (comments s).
Proof. intros s d o Hp Ho Hv Hb. rewrite (print_doc_render s d o Ho). apply doc_comments; assumption. Qed.
Print Assumptions C03_comments_kept_printed.

(* the condition of C03_exact implies the two conditions *)
Theorem C03_laid_out_conditions : forall s r, laid_out' s r = true -> vals_ok s r = true /\ supers_bare r = true.
Proof.
  intros s r H. unfold laid_out' in H. apply andb_true_iff in H as [Hv Hl]. split; [exact Hv|apply (laid_out_supers s r Hl)].
Qed.
Print Assumptions C03_laid_out_conditions.

(* ---- the fragment structure ---------------------------------------------------------------------------------- *)
(* a fragment (A, X, Y, B): the text before the key path, the key path as printed, the key path as read,
   the text after it; fr_printed = A ++ X ++ B, fr_read = A ++ Y ++ B *)
Theorem C03_fragments_kept : forall s d,
  parse_document s = POk d -> vals_ok s (doc_root d) = true -> supers_bare (doc_root d) = true ->
  exists (printed read : list frag) (trailing : bytes),
    Permutation printed read
    /\ render s d = concat (map fr_printed printed) ++ trailing
    /\ normalize s = concat (map fr_read read) ++ trailing.
Proof. exact doc_fragments. Qed.
Print Assumptions C03_fragments_kept.

(* ---- examples ------------------------------------------------------------------------------------------------ *)
Require Import String Ascii.
Definition txt (s : string) : bytes := List.map byte_of_ascii (list_ascii_of_string s).
Definition lf : string := String (ascii_of_nat 10) EmptyString.
Definition cr : string := String (ascii_of_nat 13) EmptyString.
Definition dq : string := String (ascii_of_nat 34) EmptyString.
Open Scope string_scope.

(* (vals_ok, supers_bare, laid_out') of the parsed document *)
Definition conds (s : bytes) : bool * bool * bool :=
  match parse_document s with
  | POk d => (vals_ok s (doc_root d), supers_bare (doc_root d), laid_out' s (doc_root d))
  | _ => (false, false, false)
  end.
(* the comments of the printed text and of the source *)
Definition both_comments (s : bytes) : option (list bytes * list bytes) :=
  match parse_document s with
  | POk d => match print_doc s d with Some o => Some (comments o, comments s) | None => None end
  | _ => None
  end.

(* a respelled dotted prefix that is not adjacent either (F5), comments in every slot, CRLF, a comment inside
   an array, a last comment line without newline: the conditions of C03_comments_kept hold, laid_out' does
   not; the line `"a" .d = ...` prints after `a.b = 1` and takes its comments with it *)
Definition ex_moved : bytes :=
  txt ("# top" ++ cr ++ lf ++ "a.b = 1 # one" ++ lf ++ "# mid" ++ lf ++ "c = 2 # two" ++ lf
       ++ dq ++ "a" ++ dq ++ " .d = [ 3, # in" ++ lf ++ " 4 ] # three" ++ lf ++ "[t] # h" ++ lf ++ "# in t" ++ lf ++ "x.y = 1" ++ lf ++ "# end").
Example C03_ex_moved :
  conds ex_moved = (true, true, false)
  /\ both_comments ex_moved
     = Some ([txt "# top"; txt "# one"; txt "# in"; txt "# three"; txt "# mid"; txt "# two"; txt "# h"; txt "# in t"; txt "# end"],
             [txt "# top"; txt "# one"; txt "# mid"; txt "# two"; txt "# in"; txt "# three"; txt "# h"; txt "# in t"; txt "# end"]).
Proof. split; vm_compute; reflexivity. Qed.

(* not covered, class U1 (supers_bare fails): the comments are kept all the same *)
Example C03_ex_super_lines :
  let s := txt ("[a.b.c] # h1" ++ lf ++ "[a] # h2" ++ lf ++ "# lead" ++ lf ++ "b.y.z = 1 # t" ++ lf) in
  conds s = (true, false, false)
  /\ both_comments s = Some ([txt "# h1"; txt "# h2"; txt "# lead"; txt "# t"], [txt "# h1"; txt "# h2"; txt "# lead"; txt "# t"]).
Proof. split; vm_compute; reflexivity. Qed.

(* not covered, reordered pairs inside an inline table (vals_ok fails): the comments are kept all the same *)
Example C03_ex_inline_reordered :
  let s := txt ("x = { a.b = [1, # c1" ++ lf ++ " 2], c = 2, a.d = 3 } # t" ++ lf) in
  conds s = (false, true, false) /\ both_comments s = Some ([txt "# c1"; txt "# t"], [txt "# c1"; txt "# t"]).
Proof. split; vm_compute; reflexivity. Qed.
