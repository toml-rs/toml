(* Props/C01tokens.v — property C01, layer L1 (accept / reject halves): for every lexical rule
   of toml.abnf v1.0.0 (Spec/Lex.v, Spec/Abnf.v) the model parser accepts every text of the
   rule that is followed by a non-gluing continuation (maximal munch), a committed failure
   (`Cut`) occurs only where the rule has no derivation, and the two implementation limits
   (i64 range, binary64 overflow) are refused with a committed error.
   Statements only; proofs in Proofs/LexEquiv*.v.  The value halves are in Props/C02tokens.v.

   Reading:  rest i = t ++ r   the unread input starts with the text t;
             adv t i           the input after reading t;
             stops c r         r is empty or its first byte is not in class c. *)
From TV Require Import Base.Prelude Base.Winnow Gen.Consts Spec.Abnf Spec.Lex Spec.Syntax.
From TV Require Import Model.Trivia Model.Strings Model.Datetime Model.Numbers Model.Tree Model.Parse.
From TV Require Import Proofs.LexEquivBase Proofs.LexEquivTrivia Proofs.LexEquivInt Proofs.LexEquivFloat
  Proofs.LexEquivStrings Proofs.LexEquivMlLit Proofs.LexEquivMlBasic Proofs.LexEquivString
  Proofs.LexEquivBool Proofs.LexEquivDatetime Proofs.LexEquivKey.

(* ---- trivia ------------------------------------------------------------------------------------ *)
Theorem C01_tok_ws : forall i t r,
  rest i = t ++ r -> ws_tok t -> stops wschar r -> ws i = Ok t (adv t i).
Proof. exact ws_complete. Qed.
Print Assumptions C01_tok_ws.

Theorem C01_tok_newline : forall i t r,
  rest i = t ++ r -> newline_tok t -> newline i = Ok tt (adv t i).
Proof. exact newline_complete. Qed.
Print Assumptions C01_tok_newline.

(* ... and newline fails (without commitment) exactly where no newline starts *)
Theorem C01_tok_newline_cases : forall i,
  (exists t r, newline_tok t /\ rest i = t ++ r /\ newline i = Ok tt (adv t i))
  \/ (~ starts_with_newline (rest i) /\ fails newline i).
Proof. exact newline_cases. Qed.
Print Assumptions C01_tok_newline_cases.

Theorem C01_tok_comment : forall i t r,
  rest i = t ++ r -> comment_tok t -> stops non_eol r -> comment i = Ok tt (adv t i).
Proof. exact comment_complete. Qed.
Print Assumptions C01_tok_comment.

(* ws-comment-newline = *( wschar / [ comment ] newline ) *)
Theorem C01_tok_ws_comment_newline : forall i t r,
  wscn_tok t -> rest i = t ++ r -> wscn_stop r -> ws_comment_newline i = Ok tt (adv t i).
Proof. exact wscn_complete. Qed.
Print Assumptions C01_tok_ws_comment_newline.

(* ---- keys ---------------------------------------------------------------------------------------- *)
Theorem C01_tok_unquoted_key : forall i t r,
  rest i = t ++ r -> unquoted_key_tok t -> stops unquoted_key_char r -> unquoted_key i = Ok t (adv t i).
Proof. exact unquoted_key_complete. Qed.
Print Assumptions C01_tok_unquoted_key.

Theorem C01_tok_simple_key : forall i t k r,
  simple_key_tok t k -> rest i = t ++ r -> (unquoted_key_tok t -> stops unquoted_key_char r) ->
  simple_key i = Ok (raw_with_span (pos i, (pos i + N.of_nat (length t))%N), k) (adv t i).
Proof. exact simple_key_complete. Qed.
Print Assumptions C01_tok_simple_key.

(* key = simple-key / dotted-key, as the parser reads it: with the whitespace around it
   (the ws of keyval-sep, std-table-open/close, dot-sep); at most LIMIT - 1 parts *)
Theorem C01_tok_key : forall i w1 t ks w2 r,
  ws_tok w1 -> key_tok t ks -> ws_tok w2 -> rest i = w1 ++ t ++ w2 ++ r -> key_stop r ->
  length ks < LIMIT ->
  exists kp, key_ i = Ok kp (adv (w1 ++ t ++ w2) i) /\ map k_key kp = ks.
Proof. exact key_complete. Qed.
Print Assumptions C01_tok_key.

(* a key path of LIMIT or more parts is refused (the recursion limit, DESIGN.md 3.4) *)
Theorem C01_tok_key_too_long : forall i w1 t ks w2 r,
  ws_tok w1 -> key_tok t ks -> ws_tok w2 -> rest i = w1 ++ t ++ w2 ++ r -> key_stop r ->
  LIMIT <= length ks -> exists j, key_ i = Bt (err_of RecursionLimit) j.
Proof. exact key_too_long. Qed.
Print Assumptions C01_tok_key_too_long.

Theorem C01_tok_key_cut_only : forall i e j, key_ i = Cut e j ->
  forall w1 t ks w2 r, ws_tok w1 -> key_tok t ks -> ws_tok w2 -> rest i = w1 ++ t ++ w2 ++ r -> key_stop r -> False.
Proof. exact key_cut_only. Qed.
Print Assumptions C01_tok_key_cut_only.

(* ---- strings ------------------------------------------------------------------------------------- *)
Theorem C01_tok_basic_string : forall i t v r,
  basic_string_tok t v -> rest i = t ++ r -> basic_string i = Ok v (adv t i).
Proof. exact basic_string_complete. Qed.
Print Assumptions C01_tok_basic_string.

Theorem C01_tok_basic_string_cut_only : forall i e j, basic_string i = Cut e j ->
  forall t v r, rest i = t ++ r -> ~ basic_string_tok t v.
Proof. exact basic_string_cut_only. Qed.
Print Assumptions C01_tok_basic_string_cut_only.

Theorem C01_tok_literal_string : forall i t v r,
  literal_string_tok t v -> rest i = t ++ r -> literal_string i = Ok v (adv t i).
Proof. exact literal_string_complete. Qed.
Print Assumptions C01_tok_literal_string.

Theorem C01_tok_ml_basic_string : forall i t v r,
  ml_basic_string_tok t v -> rest i = t ++ r -> stops (byte_eqb x22) r -> ml_basic_string i = Ok v (adv t i).
Proof. exact ml_basic_string_complete. Qed.
Print Assumptions C01_tok_ml_basic_string.

Theorem C01_tok_ml_basic_string_cut_only : forall i e j, ml_basic_string i = Cut e j ->
  forall t v r, rest i = t ++ r -> stops (byte_eqb x22) r -> ~ ml_basic_string_tok t v.
Proof. exact ml_basic_string_cut_only. Qed.
Print Assumptions C01_tok_ml_basic_string_cut_only.

Theorem C01_tok_ml_literal_string : forall i t v r,
  ml_literal_string_tok t v -> rest i = t ++ r -> stops (byte_eqb x27) r -> ml_literal_string i = Ok v (adv t i).
Proof. exact ml_literal_string_complete. Qed.
Print Assumptions C01_tok_ml_literal_string.

Theorem C01_tok_ml_literal_string_cut_only : forall i e j, ml_literal_string i = Cut e j ->
  forall t v r, rest i = t ++ r -> stops (byte_eqb x27) r -> ~ ml_literal_string_tok t v.
Proof. exact ml_literal_string_cut_only. Qed.
Print Assumptions C01_tok_ml_literal_string_cut_only.

(* string = ml-basic-string / basic-string / ml-literal-string / literal-string *)
Theorem C01_tok_string : forall i t v r,
  string_tok t v -> rest i = t ++ r -> no_quote_follows r -> string_ i = Ok v (adv t i).
Proof. exact string_complete. Qed.
Print Assumptions C01_tok_string.

Theorem C01_tok_string_cut_only : forall i e j, string_ i = Cut e j ->
  forall t v r, rest i = t ++ r -> no_quote_follows r -> ~ string_tok t v.
Proof. exact string_cut_only. Qed.
Print Assumptions C01_tok_string_cut_only.

(* ---- booleans ------------------------------------------------------------------------------------ *)
Theorem C01_tok_boolean : forall i t b r,
  rest i = t ++ r -> boolean_tok t b -> (true_ <|> false_) i = Ok b (adv t i).
Proof. exact boolean_complete. Qed.
Print Assumptions C01_tok_boolean.

(* true_ / false_ commit after the first letter: the committed failure occurs only where the
   literal is not there *)
Theorem C01_tok_true_cut_only : forall i e j, true_ i = Cut e j -> forall r, rest i <> t_true ++ r.
Proof. exact true_cut_only. Qed.
Print Assumptions C01_tok_true_cut_only.

Theorem C01_tok_false_cut_only : forall i e j, false_ i = Cut e j -> forall r, rest i <> t_false ++ r.
Proof. exact false_cut_only. Qed.
Print Assumptions C01_tok_false_cut_only.

(* ---- integers ------------------------------------------------------------------------------------ *)
(* integer = dec-int / hex-int / oct-int / bin-int; accepted exactly within i64 *)
Theorem C01_tok_integer : forall i t z r,
  integer_tok t z -> in_i64 z = true -> rest i = t ++ r -> stops unquoted_key_char r ->
  integer i = Ok z (adv t i).
Proof. exact integer_complete. Qed.
Print Assumptions C01_tok_integer.

Theorem C01_tok_integer_out_of_range : forall i t z r,
  integer_tok t z -> in_i64 z = false -> rest i = t ++ r -> stops unquoted_key_char r ->
  integer i = Cut (err_of IntError) i.
Proof. exact integer_out_of_range. Qed.
Print Assumptions C01_tok_integer_out_of_range.

Theorem C01_tok_integer_cut_only : forall i e j, integer i = Cut e j ->
  forall t z r, integer_tok t z -> rest i = t ++ r -> stops unquoted_key_char r -> in_i64 z = false.
Proof. exact integer_cut_only. Qed.
Print Assumptions C01_tok_integer_cut_only.

(* ---- floats -------------------------------------------------------------------------------------- *)
Theorem C01_tok_float : forall i t f r,
  float_tok t f -> finite f -> rest i = t ++ r -> stops (us_or Abnf.digit) r -> stops is_e r ->
  float i = Ok f (adv t i).
Proof. exact float_complete. Qed.
Print Assumptions C01_tok_float.

(* a decimal at or above the binary64 rounding boundary 2^1024 - 2^970, of either sign, is refused *)
Theorem C01_tok_float_overflow : forall i t neg m e r,
  float_tok t (FDec neg m e) -> overflows m e = true -> rest i = t ++ r ->
  stops (us_or Abnf.digit) r -> stops is_e r -> exists er j, float i = Cut er j.
Proof. exact float_overflow. Qed.
Print Assumptions C01_tok_float_overflow.

Theorem C01_tok_float_cut_only : forall i er j, float i = Cut er j ->
  forall t f r, float_tok t f -> rest i = t ++ r -> stops (us_or Abnf.digit) r -> stops is_e r -> ~ finite f.
Proof. exact float_cut_only. Qed.
Print Assumptions C01_tok_float_cut_only.

(* ---- date-times ---------------------------------------------------------------------------------- *)
(* date-time = offset-date-time / local-date-time / local-date / local-time with the RFC 3339
   field ranges (Spec/Syntax.v date_time_tok); `dt_stop r`: what follows cannot continue it *)
Theorem C01_tok_date_time : forall i t d r,
  date_time_tok t d -> rest i = t ++ r -> dt_stop r -> date_time i = Ok d (adv t i).
Proof. exact date_time_complete. Qed.
Print Assumptions C01_tok_date_time.

Theorem C01_tok_date_time_cut_only : forall i e j, date_time i = Cut e j ->
  forall t d r, date_time_tok t d -> rest i = t ++ r -> dt_stop r -> False.
Proof. exact date_time_cut_only. Qed.
Print Assumptions C01_tok_date_time_cut_only.

(* every accepted date-time is one of the four TOML shapes with RFC 3339 ranges
   (Spec/DatetimeSpec.v: month 1-12, day <= days-in-month with the leap rule, hour 0-23,
   minute 0-59, second 0-60, offset within +-23:59) *)
Theorem C01_tok_date_time_in_range : forall t d, date_time_tok t d -> DatetimeSpec.in_range d = true.
Proof. exact date_time_tok_in_range. Qed.
Print Assumptions C01_tok_date_time_in_range.
