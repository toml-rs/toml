(* Props/C01front.v — property C01, the clause about the serde front ends: "The serde front ends
   (toml::from_str, toml_edit::de::from_slice) accept exactly the same documents as the parser"; the bytes
   entry point validates UTF-8 first.

   Model/FrontEnds.v: every front end = parse_document, then T::deserialize on the root's value tree
   (T = toml::Table: to_toml_table; T = toml::Value: to_toml_value, Model/SerdeRoutes.v); from_slice_table
   checks utf8_valid_b first (proved equal to Unicode well-formedness in Proofs/LexEquivUtf8.v).
   tree_of_doc d   the value tree of the parsed document (None: a float inside — floats are symbolic in
                   the parser model; such documents are outside these statements)
   tree_ready x    the keys of every table of x are distinct and its date-times are in range.  True of
                   every parsed document (C09_valid_wellformed for header tables, the duplicate-key check
                   of inline tables, C12_closed: Props/C01front2.v C01_parse_tree_ready); it is a
                   hypothesis here, hence `_partial`; the extracted commands
                   (Extract/Cmd_front.v) evaluate it on every generated document.
   has_private_key / _below_root   a table key spelling "$__toml_private_datetime" (known finding
                   private-datetime-key, F14) *)
From TV Require Import Base.Utf8 Model.Document.
From TV Require Import Model.FrontEnds Proofs.FrontEnds.

(* THE BYTES ENTRY POINT: invalid UTF-8 is refused with the UTF-8 error before anything else; on valid UTF-8
   it is the string front end; it never reaches a panic site; it accepts exactly the valid-UTF-8 inputs the
   string front end accepts *)
Theorem C01_slice : forall bs,
  (utf8_valid_b bs = false -> from_slice_table bs = FUtf8Err) /\
  (utf8_valid_b bs = true -> from_slice_table bs = toml_from_str_table bs) /\
  from_slice_table bs <> FPanic /\
  (accepts (from_slice_table bs) <-> utf8_valid_b bs = true /\ accepts (toml_from_str_table bs)).
Proof. exact slice_front. Qed.
Print Assumptions C01_slice.

(* A DOCUMENT THE PARSER REFUSES is refused by every front end, as a parse error ... *)
Theorem C01_frontends_reject : forall s e a,
  parse_document s = PErr e a ->
  toml_from_str_table s = FParseErr /\ toml_from_str_value s = FParseErr /\ edit_from_str_table s = FParseErr /\
  edit_parse s = FParseErr /\ (utf8_valid_b s = true -> from_slice_table s = FParseErr).
Proof. exact rejected_everywhere. Qed.
Print Assumptions C01_frontends_reject.

(* ... and whatever a front end accepts the parser accepts *)
Theorem C01_frontends_sound : forall conv s v, from_str_with conv s = FOk v -> exists d, parse_document s = POk d.
Proof. exact accepted_means_parsed. Qed.
Print Assumptions C01_frontends_sound.

(* A DOCUMENT THE PARSER ACCEPTS is accepted by toml::from_str::<Table> / str::parse::<Table> /
   toml_edit::de::from_str / from_slice unless a table below the root spells the private key, and by
   toml::from_str::<Value> unless any table does.
   FULL STATEMENT (Props/C01front2.v C01_frontends): the same without the hypothesis `tree_ready x`. *)
Theorem C01_frontends_partial : forall s d x,
  parse_document s = POk d -> tree_of_doc d = Some x -> tree_ready x = true ->
  (has_private_key_below_root x = false ->
     toml_from_str_table s = FOk (canon_value true x) /\ edit_from_str_table s = FOk (canon_value true x) /\
     (utf8_valid_b s = true -> from_slice_table s = FOk (canon_value true x))) /\
  (has_private_key x = false -> toml_from_str_value s = FOk (canon_value true x)).
Proof. exact accepted_everywhere. Qed.
Print Assumptions C01_frontends_partial.

(* the classifier of the known class is exact: on such a document a front end refuses ONLY because of a
   private key *)
Theorem C01_frontends_classifier_partial : forall s d x,
  parse_document s = POk d -> tree_of_doc d = Some x -> tree_ready x = true ->
  (toml_from_str_table s = FDeErr -> has_private_key_below_root x = true) /\
  (toml_from_str_value s = FDeErr -> has_private_key x = true).
Proof. exact refusal_means_private_key. Qed.
Print Assumptions C01_frontends_classifier_partial.

(* known finding private-datetime-key (F14): [t] / "$__toml_private_datetime" = "x" is a document for the
   parser and is refused by every serde front end *)
Theorem C01_frontends_refuted :
  exists d x, parse_document w_private_refused = POk d /\ tree_of_doc d = Some x /\ tree_ready x = true /\
              has_private_key_below_root x = true /\
              toml_from_str_table w_private_refused = FDeErr /\ toml_from_str_value w_private_refused = FDeErr /\
              from_slice_table w_private_refused = FDeErr.
Proof. exact private_key_refused. Qed.
Print Assumptions C01_frontends_refuted.
