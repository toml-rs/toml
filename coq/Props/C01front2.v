(* Props/C01front2.v — property C01, the serde front ends, without the hypothesis `tree_ready` of
   Props/C01front.v: every parsed document's value tree is ready, and it is the data of the document.

     tree_of_doc d     the value tree of the parsed document (Extract/SpannedTree.v, spans stripped)
     abs_doc d         the data of the document (Props/C02doc.v: the tree its statements denote, C02_tree)
     value_tree T      a Spec/Defs.v tree of data as a toml value: table kinds and the array-of-tables / array
                       distinction forgotten, keys, nesting, order and scalars kept; None exactly when T holds a
                       float (floats are symbolic decimals in the parser model, binary64 bit patterns in tomlval:
                       a document with a float has no value tree in Model/FrontEnds.v — FUnmodelled — and stays
                       outside these statements)
     doc_private / doc_private_below_root / doc_has_float   the private key "$__toml_private_datetime" and floats,
                       read off the data

   Statements only; proofs in Proofs/FrontEndsReady.v. *)
From TV Require Import Base.Utf8 Model.Document.
From TV Require Import Model.FrontEnds Proofs.GrammarBase Proofs.FrontEnds Proofs.FrontEndsReady.

(* 1. the value tree of a parsed document: distinct keys in every table (header tables, tables made by dotted
      keys, inline tables), every date-time in range *)
Theorem C01_parse_tree_ready : forall s d x, parse_document s = POk d -> tree_of_doc d = Some x -> tree_ready x = true.
Proof. exact parse_tree_ready. Qed.
Print Assumptions C01_parse_tree_ready.

(* 2. the link: it is the data of the document, as a toml value; there is none exactly when a float is inside *)
Theorem C01_tree_is_data : forall s d, parse_document s = POk d -> tree_of_doc d = value_tree (abs_doc d).
Proof. exact tree_of_doc_abs. Qed.
Print Assumptions C01_tree_is_data.

Theorem C01_no_tree_iff_float : forall T, value_tree T = None <-> doc_has_float T = true.
Proof. exact value_tree_none. Qed.
Print Assumptions C01_no_tree_iff_float.

Theorem C01_private_key_on_data : forall T x, value_tree T = Some x ->
  has_private_key x = doc_private T /\ has_private_key_below_root x = doc_private_below_root T.
Proof. exact value_tree_private. Qed.
Print Assumptions C01_private_key_on_data.

(* 3. A DOCUMENT THE PARSER ACCEPTS is accepted by toml::from_str::<Table> / str::parse::<Table> /
      toml_edit::de::from_str / from_slice unless a table below the root spells the private key, and by
      toml::from_str::<Value> unless any table does — and decoded to the document's tree, tables sorted *)
Theorem C01_frontends : forall s d x,
  parse_document s = POk d -> tree_of_doc d = Some x ->
  (has_private_key_below_root x = false ->
     toml_from_str_table s = FOk (canon_value true x) /\ edit_from_str_table s = FOk (canon_value true x) /\
     (utf8_valid_b s = true -> from_slice_table s = FOk (canon_value true x))) /\
  (has_private_key x = false -> toml_from_str_value s = FOk (canon_value true x)).
Proof. exact frontends_accept. Qed.
Print Assumptions C01_frontends.

(* the same in terms of the data of the document only *)
Theorem C01_frontends_data : forall s d,
  parse_document s = POk d -> doc_has_float (abs_doc d) = false ->
  exists x, value_tree (abs_doc d) = Some x /\
    (doc_private_below_root (abs_doc d) = false ->
       toml_from_str_table s = FOk (canon_value true x) /\ edit_from_str_table s = FOk (canon_value true x) /\
       (utf8_valid_b s = true -> from_slice_table s = FOk (canon_value true x))) /\
    (doc_private (abs_doc d) = false -> toml_from_str_value s = FOk (canon_value true x)).
Proof. exact frontends_accept_data. Qed.
Print Assumptions C01_frontends_data.

(* a front end refuses a parsed document ONLY because of a private key (the converse direction — whatever a
   front end accepts the parser accepts — is C01_frontends_sound of Props/C01front.v) *)
Theorem C01_frontends_classifier : forall s d x,
  parse_document s = POk d -> tree_of_doc d = Some x ->
  (toml_from_str_table s = FDeErr -> has_private_key_below_root x = true) /\
  (toml_from_str_value s = FDeErr -> has_private_key x = true).
Proof. exact frontends_classifier. Qed.
Print Assumptions C01_frontends_classifier.

(* the exception is real (known finding private-datetime-key, F14; witness of Props/C01front.v) *)
Theorem C01_frontends_refuted2 :
  exists d x, parse_document w_private_refused = POk d /\ tree_of_doc d = Some x /\
              has_private_key_below_root x = true /\
              toml_from_str_table w_private_refused = FDeErr /\ toml_from_str_value w_private_refused = FDeErr /\
              from_slice_table w_private_refused = FDeErr.
Proof. destruct private_key_refused as (d & x & H1 & H2 & _ & H4 & H5 & H6 & H7). exists d, x. auto 10. Qed.
Print Assumptions C01_frontends_refuted2.
