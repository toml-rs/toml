(* Props/C04.v — No input makes the library panic, abort or hang.

   The model (Base/Winnow.v, Model/*.v) has one explicit `Panic site` result for every place where the
   Rust code can panic (expect/unwrap/unreachable!/assert!/slice index/from_utf8_unchecked on non-UTF-8,
   winnow's no-progress assertion, RecursionCheck underflow) plus the model artefact `P_out_of_fuel`.
   The theorems say no byte string reaches any of them through any entry point, that every loop started
   with fuel `S (length input)` finishes within that fuel (so the work is bounded by the input length:
   no hang), that the parse-state machine never leaves its invariant, and that rendering an error at
   any in-range offset reaches no panic site.  Proofs: Proofs/NoPanic{Base,Lex,Value,State,Doc,Top}.v,
   Proofs/ErrorPos.v, Proofs/ErrorRange.v.

   Not covered by theorems (measured by the correspondence harness instead, see lib/props/c04.py):
   wall-clock time, stack use (C05), serde deserialisers, Debug/Clone/Drop.  The standalone toml_datetime
   parser's u8/u16 arithmetic is in Props/C04std.v. *)
From TV Require Import Base.Prelude Base.Utf8 Base.Winnow.
From TV Require Import Model.Trivia Model.Strings Model.Datetime Model.Numbers Model.Tree Model.Parse Model.Document Model.Error.
From TV Require Import Proofs.NoPanicBase Proofs.NoPanicState Proofs.NoPanicDoc Proofs.NoPanicTop.
From TV Require Import Proofs.ErrorPos Proofs.ErrorRange.

(* every entry point of the parser, on EVERY byte string (valid UTF-8 or not): never a panic site, in
   particular never out of fuel, never winnow's no-progress assertion, never from_utf8_unchecked on
   bytes that are not UTF-8 *)
Theorem C04_parse_total : forall (s : bytes) (st : site),
  parse_document s <> PPanic st /\ parse_value_raw s <> PPanic st
  /\ parse_key s <> PPanic st /\ parse_key_path s <> PPanic st.
Proof. exact entry_points_total. Qed.
Print Assumptions C04_parse_total.

(* every token parser, started anywhere (any rest, any offset, any depth counter) *)
Theorem C04_lexical_total : forall (i : input) (s : site),
  ws i <> Panic s /\ comment i <> Panic s /\ newline i <> Panic s /\ ws_newline i <> Panic s
  /\ ws_newlines i <> Panic s /\ ws_comment_newline i <> Panic s /\ line_ending i <> Panic s
  /\ line_trailing i <> Panic s
  /\ basic_string i <> Panic s /\ ml_basic_string i <> Panic s /\ literal_string i <> Panic s
  /\ ml_literal_string i <> Panic s /\ string_ i <> Panic s
  /\ integer i <> Panic s /\ float i <> Panic s /\ true_ i <> Panic s /\ false_ i <> Panic s
  /\ date_time i <> Panic s /\ simple_key i <> Panic s /\ key_ i <> Panic s.
Proof. exact lexical_total_plain. Qed.
Print Assumptions C04_lexical_total.

Theorem C04_value_total : forall (i : input) (s : site), value_ i <> Panic s.
Proof. exact value_total_plain. Qed.
Print Assumptions C04_value_total.

Theorem C04_document_total : forall (i : input) (s : site), document i <> Panic s.
Proof. exact document_total_plain. Qed.
Print Assumptions C04_document_total.

(* termination: the loop combinators over ARBITRARY element parsers that only ever consume input
   (`mono`), make progress and are themselves panic-free never run out of the fuel
   `S (length (rest i))` they are started with and never hit winnow's no-progress assertion *)
Theorem C04_loops_total :
  (forall A (p : parser A), mono p -> mono (repeat0 p) /\ mono (repeat1 p))
  /\ (forall A S (p : parser A) (sep : parser S), mono p -> mono sep -> mono (separated0 p sep) /\ mono (separated1 p sep))
  /\ (forall A (p : parser A), mono p -> progress p -> safe p -> safe (repeat0 p) /\ safe (repeat1 p))
  /\ (forall A S (p : parser A) (sep : parser S), mono p -> mono sep -> progress sep -> safe p -> safe sep ->
        safe (separated0 p sep) /\ safe (separated1 p sep))
  /\ (forall p, mono p -> progress p -> safe p -> safe (chunks p)).
Proof. exact loops_total. Qed.
Print Assumptions C04_loops_total.

(* what `safe`, `mono`, `progress` mean, in terms of the model only *)
Theorem C04_judgements_meaning :
  (forall A (p : parser A), safe p <-> forall i s, p i <> Panic s)
  /\ (forall A (p : parser A), mono p <->
        forall i a i', p i = Ok a i' ->
          exists t, rest i = t ++ rest i' /\ pos i' = (pos i + N.of_nat (length t))%N /\ depth i' = depth i)
  /\ (forall A (p : parser A), progress p <-> forall i a i', p i = Ok a i' -> length (rest i') < length (rest i)).
Proof. exact judgements_meaning. Qed.
Print Assumptions C04_judgements_meaning.

(* the parse-state machine (state.rs) keeps its invariant and reaches none of its expect / unwrap /
   unreachable! / assert! sites from any reachable state *)
Theorem C04_state_machine_total :
  inv state_new
  /\ (forall st sp, inv st -> inv (on_ws st sp))
  /\ (forall st path k v, inv st ->
        match on_keyval_sp st path k (IValue v) with COk st' => inv st' | CErr _ => True | CPanic _ => False end)
  /\ (forall ia st path trailing sp, inv st -> path <> [] ->
        match on_header ia st path trailing sp with COk st' => inv st' | CErr _ => True | CPanic _ => False end)
  /\ (forall st, inv st -> match finalize_table st with CPanic _ => False | _ => True end).
Proof. exact state_machine_total. Qed.
Print Assumptions C04_state_machine_total.

(* rendering the error: translate_position's slices and subtractions cannot fail, and Display for
   TomlError reaches no panic site for any offset inside the document; every error offset the parser
   reports IS inside the document *)
Theorem C04_translate_total : forall (s : bytes) (i : nat),
  translate_position_chk s i = Some (translate_position s i).
Proof. exact translate_position_total. Qed.
Print Assumptions C04_translate_total.

Theorem C04_error_render : forall (s : bytes) (off : nat),
  utf8_valid_b s = true -> off <= length s -> exists r, render s (char_span s off) = ROk r.
Proof. exact render_total. Qed.
Print Assumptions C04_error_render.

Theorem C04_error_offset_in_range : forall (s : bytes) (e : perr) (at_ : N),
  parse_document s = PErr e (Some at_) -> (at_ <= N.of_nat (length s))%N.
Proof. exact document_offset_in_range. Qed.
Print Assumptions C04_error_offset_in_range.

(* the statements are not vacuous: a document with every kind of construct, and three malformed inputs
   (invalid UTF-8, unterminated string, bare CR) all come back as a value or an error *)
Example ex_ok : exists d, parse_document
  [x61; x20; x3d; x20; x5b; x31; x2c; x20; x7b; x62; x20; x3d; x20; x22; x5c; x6e; x22; x7d; x5d; x0a; x5b; x74; x5d; x0a] = POk d.
Proof. eexists. vm_compute. reflexivity. Qed.
Example ex_bad_utf8 : exists e a, parse_document [x61; x20; x3d; x20; x22; xff; x22] = PErr e a.
Proof. eexists. eexists. vm_compute. reflexivity. Qed.
Example ex_unterminated : exists e a, parse_document [x61; x20; x3d; x20; x22; x22; x22; x5c] = PErr e a.
Proof. eexists. eexists. vm_compute. reflexivity. Qed.
Example ex_bare_cr : exists e a, parse_document [x0d] = PErr e a.
Proof. eexists. eexists. vm_compute. reflexivity. Qed.
