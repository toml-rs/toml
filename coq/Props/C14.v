(* Props/C14.v — Spans point at exactly the source text of each item.
   First layer: what the span-producing combinators record, and what `RawString::with_span` keeps.
   The whole-document statements (range, nesting, character boundaries, re-parsing, despan) are in
   Props/C14spans.v. *)
From TV Require Import Base.Prelude Base.Winnow Model.Tree.

Lemma with_span_records {A} (p : parser A) i x a b i' :
  with_span p i = Ok (x, (a, b)) i' -> a = pos i /\ b = pos i' /\ p i = Ok x i'.
Proof.
  unfold with_span. destruct (p i) as [y j|e j|e j|s] eqn:E; intro H; try discriminate.
  inversion H; subst. auto.
Qed.
Lemma span_records {A} (p : parser A) i a b i' :
  span_ p i = Ok (a, b) i' -> a = pos i /\ b = pos i' /\ exists x, p i = Ok x i'.
Proof.
  unfold span_. destruct (p i) as [y j|e j|e j|s] eqn:E; intro H; try discriminate.
  inversion H; subst. eauto.
Qed.

Theorem C14_with_span : forall (A : Type) (p : parser A) i x a b i',
  with_span p i = Ok (x, (a, b)) i' -> a = pos i /\ b = pos i' /\ p i = Ok x i'.
Proof. exact @with_span_records. Qed.
Print Assumptions C14_with_span.

Theorem C14_span : forall (A : Type) (p : parser A) i a b i',
  span_ p i = Ok (a, b) i' -> a = pos i /\ b = pos i' /\ exists x, p i = Ok x i'.
Proof. exact @span_records. Qed.
Print Assumptions C14_span.

(* RawString::with_span keeps exactly the range, and nothing for an empty range *)
Theorem C14_raw_with_span : forall a b,
  raw_span (raw_with_span (a, b)) = (if (a =? b)%N then None else Some (a, b)).
Proof. intros a b. unfold raw_with_span; cbn [fst snd]. destruct (a =? b)%N; reflexivity. Qed.
Print Assumptions C14_raw_with_span.

(* despan leaves no span in a raw string *)
Theorem C14_raw_despan : forall s r r', raw_despan s r = Some r' -> raw_span r' = None.
Proof.
  intros s r r' H. destruct r as [|t|a b]; cbn [raw_despan] in H.
  - inversion H; reflexivity.
  - inversion H; reflexivity.
  - destruct (str_get s a b) as [t|]; [|discriminate]. inversion H. unfold raw_of_bytes. destruct t; reflexivity.
Qed.
Print Assumptions C14_raw_despan.
