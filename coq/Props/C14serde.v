(* Props/C14serde.v — property C14, serde half: the spans serde's `Spanned<T>` wrapper delivers are the
   spans of the document's items, and wrapping any part of a target type in `Spanned<T>` changes neither
   whether nor how the rest deserializes.  Statements only; proofs in Proofs/SpannedRT*.v.

   Level: the value tree with spans (Model/SerdeSpanned.v `stree`: every scalar, array, table and table
   key carries the optional span toml_edit reports for it on an ImDocument); which spans the parser
   records is the document half (Props/C14spans.v).  `sty`: target types with Spanned wrappers at ANY set
   of positions (`YPlain t`: a sub-type without any); `erase_ty` removes the wrappers, `erase_val` the
   spans, `strip` the spans of the tree.  de_s: toml_edit's ValueDeserializer + KeyDeserializer +
   SpannedDeserializer at such a type; de_value (Model/De.v): the same deserializer at a plain type. *)
From TV Require Import Base.Prelude Model.SerNum Spec.SerdeData Model.De Model.SerdeSpanned Proofs.SpannedRTTop
  Extract.SpannedTree Extract.Show.
Require Import String.

(* Spanned<T> at a node with span a..b yields Spanned { span: a..b, value: v } where v is what T yields at that
   node; at a node without a span it fails *)
Theorem C14_spanned_delivers : forall t s,
  match span_of s with
  | Some (a, b) => de_s (YSpanned t) s = rmap (XSpanned a b) (de_s t s)
  | None => de_s (YSpanned t) s = Err EDe
  end.
Proof. exact spanned_delivers. Qed.
Print Assumptions C14_spanned_delivers.

(* a map key Spanned<K> carries the span of the key around what K yields on that key — for ANY key type K (String,
   char, a unit-variant enum, a newtype, another Spanned): KeyDeserializer hands itself to the inner type *)
Theorem C14_spanned_key_delivers : forall t k ksp,
  match ksp with
  | Some (a, b) => de_key_s (YSpanned t) k ksp = rmap (XSpanned a b) (de_key_s t k ksp)
  | None => de_key_s (YSpanned t) k ksp = Err EDe
  end.
Proof. exact spanned_key_delivers. Qed.
Print Assumptions C14_spanned_key_delivers.

(* keys are transparent under ANY nesting of Spanned / newtype wrappers: the wrapped key type succeeds exactly
   when the erased one does, with the same value after erasing the spans (repaired finding C14-spanned-newtype-key) *)
Theorem C14_spanned_key_transparent : forall kt k a b,
  ((exists x, de_key_s kt k (Some (a, b)) = Ok x) <-> (exists v, de_key (erase_ty kt) k = Ok v))
  /\ (forall x v, de_key_s kt k (Some (a, b)) = Ok x -> de_key (erase_ty kt) k = Ok v -> erase_val x = v).
Proof. exact spanned_key_transparent. Qed.
Print Assumptions C14_spanned_key_transparent.

(* a DocumentMut has no spans (into_mut removes them): nothing is delivered through from_document(DocumentMut) *)
Theorem C14_spanned_needs_spans : forall t s, de_s (YSpanned t) (despan s) = Err EDe.
Proof. exact spanned_needs_spans. Qed.
Print Assumptions C14_spanned_needs_spans.

(* transparency: for every type with Spanned wrappers at any positions (sty_ok: not around an Option field;
   map keys are unrestricted) and every well-formed tree all of whose nodes and keys
   have spans, the wrapped type succeeds exactly when the erased type does, and the values agree after
   erasing the spans *)
Theorem C14_transparent : forall t s, sty_ok t = true -> all_spans s = true ->
  ((exists x, de_s t s = Ok x) <-> (exists v, de_value (erase_ty t) (strip s) = Ok v))
  /\ (forall x v, de_s t s = Ok x -> de_value (erase_ty t) (strip s) = Ok v -> erase_val x = v).
Proof. exact spanned_transparent. Qed.
Print Assumptions C14_transparent.

(* ---- the two ways transparency fails, each on the tree the Coq parser builds from the text ---- *)
(* known finding C14-implicit-table-span: in `[a.b]\nc = 3` the table `a` has no span; Spanned over it fails *)
Theorem C14_implicit_table_refuted :
  parse_stree imp_text = Some (Some imp_tree)
  /\ sty_ok imp_ty = true /\ all_spans imp_tree = false
  /\ de_value (erase_ty imp_ty) (strip imp_tree) = Ok (SRec [SRec [SRec [SInt 3]]])
  /\ de_s imp_ty imp_tree = Err EDe.
Proof. exact implicit_table_refuted. Qed.
Print Assumptions C14_implicit_table_refuted.

(* a struct field Spanned<Option<T>> whose key is missing fails where Option<T> is None *)
Theorem C14_spanned_option_missing_refuted :
  parse_stree opt_text = Some (Some opt_tree)
  /\ all_spans opt_tree = true /\ sty_ok opt_ty = false
  /\ de_value (erase_ty opt_ty) (strip opt_tree) = Ok (SRec [SInt 3; SNone])
  /\ de_s opt_ty opt_tree = Err EDe
  /\ de_s (YStruct (str "S") [(str "a", YPlain (TInt TI64)); (str "o", YOpt (YSpanned (YPlain (TInt TI8))))]) opt_tree
     = Ok (XRec [XPlain (SInt 3); XPlain SNone]).
Proof. exact spanned_option_missing_refuted. Qed.
Print Assumptions C14_spanned_option_missing_refuted.

(* regression for the repaired finding C14-spanned-newtype-key: a map key Spanned<Wrap(String)> (and Spanned around
   Spanned, around a newtype around Spanned) now works, with the key's span at every Spanned level *)
Example C14_spanned_newtype_key_regression :
  parse_stree nk_text = Some (Some nk_tree)
  /\ all_spans nk_tree = true /\ sty_ok nk_ty = true
  /\ de_value (erase_ty nk_ty) (strip nk_tree) = Ok (SMap [(SNewtype (SStr (str "k")), SInt 3)])
  /\ de_s nk_ty nk_tree = Ok (XMap [(XSpanned 0 1 (XPlain (SNewtype (SStr (str "k")))), XPlain (SInt 3))])
  /\ de_s (YMap (YSpanned (YNewtype (str "W") (YPlain TStr))) (YPlain (TInt TI8))) nk_tree
     = Ok (XMap [(XSpanned 0 1 (XNewtype (XPlain (SStr (str "k")))), XPlain (SInt 3))])
  /\ de_s (YMap (YNewtype (str "W") (YSpanned (YPlain TStr))) (YPlain (TInt TI8))) nk_tree
     = Ok (XMap [(XNewtype (XSpanned 0 1 (XPlain (SStr (str "k")))), XPlain (SInt 3))])
  /\ de_s (YMap (YSpanned (YSpanned (YPlain TStr))) (YPlain (TInt TI8))) nk_tree
     = Ok (XMap [(XSpanned 0 1 (XSpanned 0 1 (XPlain (SStr (str "k")))), XPlain (SInt 3))])
  /\ de_s (YMap (YSpanned (YNewtype (str "W") (YSpanned (YPlain TStr)))) (YPlain (TInt TI8))) nk_tree
     = Ok (XMap [(XSpanned 0 1 (XNewtype (XSpanned 0 1 (XPlain (SStr (str "k"))))), XPlain (SInt 3))]).
Proof. exact spanned_newtype_key_ok. Qed.

(* ---- non-vacuity: `a = 1\nm.k = 3\n[t]\nx = 5\n` read as
       S { a: Spanned<i64>, t: Spanned<T { x: Spanned<i64> }>, m: Map<Spanned<String>, Spanned<Wrap(i8)>> } ---- *)
Definition ex_text : bytes :=
  str "a = 1" ++ [x0a] ++ str "m.k = 3" ++ [x0a] ++ str "[t]" ++ [x0a] ++ str "x = 5" ++ [x0a].
Definition ex_sty : sty :=
  YStruct (str "S") [(str "a", YSpanned (YPlain (TInt TI64)));
                     (str "t", YSpanned (YStruct (str "T") [(str "x", YSpanned (YPlain (TInt TI64)))]));
                     (str "m", YMap (YSpanned (YPlain TStr)) (YSpanned (YPlain (TNewtype (str "W") (TInt TI8)))))].
Example C14_ex :
  exists s, parse_stree ex_text = Some (Some s) /\ all_spans s = true /\ sty_ok ex_sty = true
    /\ de_s ex_sty s = Ok (XRec [XSpanned 4 5 (XPlain (SInt 1));
                                 XSpanned 14 23 (XRec [XSpanned 22 23 (XPlain (SInt 5))]);
                                 XMap [(XSpanned 8 9 (XPlain (SStr (str "k"))), XSpanned 12 13 (XPlain (SNewtype (SInt 3))))]])
    /\ de_value (erase_ty ex_sty) (strip s) = Ok (SRec [SInt 1; SRec [SInt 5]; SMap [(SStr (str "k"), SNewtype (SInt 3))]]).
Proof. eexists. split; [vm_compute; reflexivity|]. repeat split; vm_compute; reflexivity. Qed.
