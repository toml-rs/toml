(* Props/C04std.v — C04 ("no input makes the library panic, abort or hang ... in a build with debug assertions
   and overflow checks") for the standalone date-time parser and printer, crates/toml_datetime/src/datetime.rs.

   Model/DatetimeStdChk.v transcribes `Datetime::from_str` and the `Display` impls with every overflow-checked
   operation and the slice `whole[end..]` explicit (`Panic site`); machine integers have their exact ranges.
   It is tied to Model/DatetimeStd.v — the unchecked model the extracted driver runs against the implementation —
   by `C04_std_chk_refines` / `C04_std_display_refines`.

   The bound of the fraction loop (`if i < 9`) and its top exponent (`8 - i as u32`) are parameters:
   `C04_std_fraction_bound` is the general condition (bound <= top + 1, top <= 8) and `from_str_chk` is the instance
   for the source's values (Model/DatetimeStdChk.v FRAC_DIGITS / FRAC_TOP_EXP, bound to the generated SD_FRAC_DIGITS / SD_FRAC_TOP_EXP);
   with the seeded bound 10 the side condition is false and the checked model does panic (Examples below). *)
From TV Require Import Base.Prelude Base.Utf8 Model.Datetime Model.DatetimeStd Model.DatetimeStdChk Proofs.DatetimeStdTotal.

(* every &str: Datetime::from_str reaches no panic site *)
Theorem C04_std_datetime_total : forall s : bytes, utf8_valid_b s = true -> forall site, from_str_chk s <> Panic site.
Proof. exact from_str_chk_total. Qed.
Print Assumptions C04_std_datetime_total.

(* every byte string: no arithmetic site; the slice site needs bytes that are not UTF-8 (impossible for a &str) *)
Theorem C04_std_datetime_total_bytes : forall (s : bytes) site,
  from_str_chk s = Panic site -> site = PSlice /\ utf8_valid_b s = false.
Proof. exact from_str_chk_panics. Qed.
Print Assumptions C04_std_datetime_total_bytes.

(* the general condition on the fraction loop's bound and exponent *)
Theorem C04_std_fraction_bound : forall bound top, bound <= S top -> top <= 8 ->
  forall s site, from_str_chk_with bound top s = Panic site -> site = PSlice /\ utf8_valid_b s = false.
Proof. exact from_str_chk_with_panics. Qed.
Print Assumptions C04_std_fraction_bound.

(* the checked model returns what the correspondence-tested model returns *)
Theorem C04_std_chk_refines : forall s r, from_str_chk s = Done r -> std_from_str s = r.
Proof. exact chk_refines. Qed.
Print Assumptions C04_std_chk_refines.

(* Display: every value of the Rust types prints without a panic, except ... *)
Theorem C04_std_display_total : forall d, rust_datetime d ->
  d_offset d <> Some (OffCustom I16_MIN) -> exists t, display_chk d = Done t.
Proof. exact display_chk_total. Qed.
Print Assumptions C04_std_display_total.

(* ... Offset::Custom { minutes: i16::MIN }: `minutes *= -1` overflows (a finding: replayed on the real code,
   `Offset::Custom { minutes: i16::MIN }.to_string()` panics at datetime.rs:280 in a build with overflow checks) *)
Theorem C04_std_display_refuted : exists d, rust_datetime d /\ display_chk d = Panic PDispNeg.
Proof. exact display_chk_refuted. Qed.
Print Assumptions C04_std_display_refuted.

Theorem C04_std_display_panics : forall d site, rust_datetime d -> display_chk d = Panic site ->
  site = PDispNeg /\ d_offset d = Some (OffCustom I16_MIN).
Proof. exact display_chk_panics. Qed.
Print Assumptions C04_std_display_panics.

Theorem C04_std_display_refines : forall d t, display_chk d = Done t -> display_datetime d = t.
Proof. exact display_chk_refines. Qed.
Print Assumptions C04_std_display_refines.

(* ---- not vacuous: the checked model does panic under the seeded change `if i < 9` -> `if i <= 9` ---- *)
(* "07:32:00.0000000000": the tenth fraction digit makes `8 - i as u32` underflow *)
Definition seeded_input : bytes :=
  [x30; x37; x3a; x33; x32; x3a; x30; x30; x2e; x30; x30; x30; x30; x30; x30; x30; x30; x30; x30].
Example seeded_bound_panics : from_str_chk_with 10 8 seeded_input = Panic PFracExpSub.
Proof. vm_compute; reflexivity. Qed.
Example source_bound_returns :
  from_str_chk seeded_input = Done (Some (mkDT None (Some (mkTime 7 32 0 0)) None)).
Proof. vm_compute; reflexivity. Qed.
(* a larger exponent overflows the multiplication: `10_u32.pow(9 - i)` * 9 *)
Example exponent_9_panics : exists site, from_str_chk_with 9 9 [x30; x37; x3a; x33; x32; x3a; x30; x30; x2e; x39] = Panic site.
Proof. eexists. vm_compute; reflexivity. Qed.
(* the slice site is real for bytes that are not UTF-8: "07:32:00.1" followed by a lone continuation byte *)
Example slice_site_reachable_on_non_utf8 :
  from_str_chk [x30; x37; x3a; x33; x32; x3a; x30; x30; x2e; x31; x80] = Panic PSlice.
Proof. vm_compute; reflexivity. Qed.
(* the hypotheses are satisfiable and results are produced *)
Example parses_offset_datetime :
  from_str_chk [x31; x39; x37; x39; x2d; x30; x35; x2d; x32; x37; x54; x30; x37; x3a; x33; x32; x3a; x30; x30; x2e; x35; x2d; x30; x37; x3a; x30; x30]
  = Done (Some (mkDT (Some (mkDate 1979 5 27)) (Some (mkTime 7 32 0 500000000)) (Some (OffCustom (-420))))).
Proof. vm_compute; reflexivity. Qed.
Example display_extreme_values :
  exists t, display_chk (mkDT (Some (mkDate 65535 255 255)) (Some (mkTime 255 255 255 4294967295)) (Some (OffCustom 32767))) = Done t.
Proof. eexists. vm_compute; reflexivity. Qed.
