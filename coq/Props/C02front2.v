(* Props/C02front2.v — property C02, the clause "toml::from_str::<Value> decodes the same tree", composed with
   C02_tree (Props/C02doc.v): the decoded value is the tree the statements of the text denote.

     verdict stmts = Valid T   T is the tree the statements denote (Spec/Defs.v + Spec/Syntax.v `den`)
     value_tree T              T as a toml value: keys, nesting, order and scalars kept; table kinds and the
                               array-of-tables / array distinction forgotten; None exactly when T holds a float
                               (then toml_from_str_value is FUnmodelled, never FOk: Model/FrontEnds.v)
     canon_value true x        x with every table in ascending key order (toml::Value's map is a BTreeMap)
     doc_private T             a table key of T spells "$__toml_private_datetime" (known finding F14)

   Nothing stays conditional except the documented classes: floats (outside the front-end model) and the private
   key (refuted below).  Statements only; proofs in Proofs/FrontEndsReady.v. *)
From TV Require Import Base.Prelude Model.Datetime Model.Document Spec.SerdeData Spec.Defs Spec.Syntax.
From TV Require Import Model.FrontEnds Proofs.GrammarBase Proofs.FrontEnds Proofs.FrontEndsReady Extract.Show.
Require Import String.
Open Scope string_scope.

(* toml::from_str::<toml::Value>: for EVERY derivation of the text whose statements are valid, the decoded value
   is the tree they denote, tables sorted by key *)
Theorem C02_serde : forall s d stmts T v,
  parse_document s = POk d -> toml_text s stmts -> verdict stmts = Valid T -> toml_from_str_value s = FOk v ->
  exists x, value_tree T = Some x /\ (doc_private T = false -> v = canon_value true x).
Proof. exact serde_value_tree. Qed.
Print Assumptions C02_serde.

(* str::parse::<toml::Table> / toml::from_str::<toml::Table> likewise (the root itself may spell the key) *)
Theorem C02_serde_table : forall s d stmts T v,
  parse_document s = POk d -> toml_text s stmts -> verdict stmts = Valid T -> toml_from_str_table s = FOk v ->
  exists x, value_tree T = Some x /\ (doc_private_below_root T = false -> v = canon_value true x).
Proof. exact serde_table_tree. Qed.
Print Assumptions C02_serde_table.

(* the same about the tree of the parsed document, without `tree_ready` (Props/C02front.v C02_serde_partial) *)
Theorem C02_serde_doc : forall s d x v,
  parse_document s = POk d -> tree_of_doc d = Some x -> has_private_key x = false ->
  toml_from_str_value s = FOk v -> v = canon_value true x.
Proof. intros s d x v Hp Hx. apply (serde_value s d x v Hp Hx (parse_tree_ready s d x Hp Hx)). Qed.
Print Assumptions C02_serde_doc.

Theorem C02_serde_table_doc : forall s d x v,
  parse_document s = POk d -> tree_of_doc d = Some x -> has_private_key_below_root x = false ->
  toml_from_str_table s = FOk v -> v = canon_value true x.
Proof. intros s d x v Hp Hx. apply (serde_table s d x v Hp Hx (parse_tree_ready s d x Hp Hx)). Qed.
Print Assumptions C02_serde_table_doc.

(* inside the private-key class the decoded value differs SILENTLY (known finding private-datetime-key, F14):
   [t] / "$__toml_private_datetime" = "1979-05-27" / b = 1  decodes to t = 1979-05-27; the key b is lost *)
Theorem C02_serde_refuted2 :
  exists d x v, parse_document w_private_misread = POk d /\ tree_of_doc d = Some x /\ doc_private (abs_doc d) = true /\
                toml_from_str_value w_private_misread = FOk v /\ v <> canon_value true x /\
                v = VTab [(str "t", VDatetime (mkDT (Some (mkDate 1979 5 27)) None None))].
Proof.
  destruct private_key_misread as (d & x & v & H1 & H2 & _ & H4 & H5 & H6). exists d, x, v.
  split; [exact H1|]. split; [exact H2|]. split; [|auto].
  pose proof (tree_of_doc_abs _ d H1) as E. rewrite H2 in E. symmetry in E. rewrite <- (proj1 (value_tree_private _ x E)).
  destruct (has_private_key x) eqn:P; [reflexivity|]. exfalso. apply H5.
  apply (serde_value _ d x v H1 H2 (parse_tree_ready _ d x H1 H2) P H4).
Qed.
Print Assumptions C02_serde_refuted2.

(* Examples: the link by computation — a document with headers, dotted keys, an inline table, an array of tables;
   and a document with a float has no value tree *)
Example C02_link_example :
  exists d, parse_document ex_doc = POk d /\ tree_of_doc d = value_tree (abs_doc d)
            /\ doc_has_float (abs_doc d) = false /\ doc_private (abs_doc d) = false.
Proof. exists (doc_of ex_doc). split; [vm_compute; reflexivity|]. split; [vm_compute; reflexivity|]. split; vm_compute; reflexivity. Qed.

Example C02_float_example :
  let s := [x61; x20; x3d; x20; x31; x2e; x35; x0a] (* a = 1.5 *) in
  exists d, parse_document s = POk d /\ tree_of_doc d = None /\ doc_has_float (abs_doc d) = true /\ toml_from_str_value s = FUnmodelled.
Proof. eexists. split; [vm_compute; reflexivity|]. split; [vm_compute; reflexivity|]. split; vm_compute; reflexivity. Qed.
