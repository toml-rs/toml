(* Props/C15.v — property C15: every rejection is a well-formed, correctly located error.
   Statements only; proofs in Proofs/ErrorPos.v (UTF-8, char_span, translate_position,
   rendering), Proofs/ErrorRange.v (every parser keeps its cursor inside the document),
   Proofs/ErrorMsg.v (which errors of the document parser can carry an empty message) and
   Proofs/EoiMsg.v (the same for the stand-alone value / key / key-path entry points, which run
   `terminated(P, end_of_input)`; Proofs/Eoi.v relates them to `P.parse`).

   Offsets: `nat` in Model/Error.v and Spec/Position.v, `N` for the parser's cursor.
   The serde half of the property (deserialization errors carry the offending value's span or
   its key path) is an oracle on the implementation only (lib/props/c15.py, `deerr`). *)
From TV Require Import Base.Prelude Base.Utf8 Base.Winnow Model.Parse Model.Document Model.Error
  Spec.Position Proofs.ErrorPos Proofs.ErrorRange Proofs.ErrorMsg Proofs.Eoi Proofs.EoiMsg.

(* The line and column computed by translate_position are the specification's, for every
   character boundary of a valid text including the end of input (with and without a final
   newline; at end of input: one past the end of the last line). *)
Theorem C15_position : forall (s : bytes) (i : nat),
  utf8_valid_b s = true -> char_boundary_b s (N.of_nat i) = true -> i <= length s ->
  translate_position s i = (lines_before s i, chars_since_line_start s i).
Proof. exact position_correct. Qed.
Print Assumptions C15_position.

(* winnow's char_span of any offset inside a valid text lies in the text, on character
   boundaries, and starts at or before the offset. *)
Theorem C15_span_ok : forall (s : bytes) (off : nat),
  utf8_valid_b s = true -> off <= length s ->
  let (a, b) := char_span s off in
  a <= b /\ b <= length s /\ char_boundary_b s (N.of_nat a) = true /\ char_boundary_b s (N.of_nat b) = true
  /\ a <= off.
Proof. exact span_ok. Qed.
Print Assumptions C15_span_ok.

(* No slice bound and no usize subtraction inside translate_position can fail, for any input
   and any index. *)
Theorem C15_translate_total : forall (s : bytes) (i : nat),
  translate_position_chk s i = Some (translate_position s i).
Proof. exact translate_position_total. Qed.
Print Assumptions C15_translate_total.

(* Rendering the error at char_span s off reaches no panic site: the line exists
   (`nth(line).expect`), `span.end - span.start` does not underflow. *)
Theorem C15_render_total : forall (s : bytes) (off : nat),
  utf8_valid_b s = true -> off <= length s -> exists r, render s (char_span s off) = ROk r.
Proof. exact render_total. Qed.
Print Assumptions C15_render_total.

(* Every error offset of the document parser (and of the value / key / key-path entry points)
   is inside the document. *)
Theorem C15_offset_in_range : forall (s : bytes) (e : perr) (at_ : N),
  parse_document s = PErr e (Some at_) -> (at_ <= N.of_nat (length s))%N.
Proof. exact document_offset_in_range. Qed.
Print Assumptions C15_offset_in_range.

Theorem C15_offset_in_range_value : forall (s : bytes) (e : perr) (at_ : N),
  parse_value_raw s = PErr e (Some at_) -> (at_ <= N.of_nat (length s))%N.
Proof. exact value_offset_in_range. Qed.
Print Assumptions C15_offset_in_range_value.

Theorem C15_offset_in_range_key : forall (s : bytes) (e : perr) (at_ : N),
  parse_key s = PErr e (Some at_) -> (at_ <= N.of_nat (length s))%N.
Proof. exact key_offset_in_range. Qed.
Print Assumptions C15_offset_in_range_key.

Theorem C15_offset_in_range_key_path : forall (s : bytes) (e : perr) (at_ : N),
  parse_key_path s = PErr e (Some at_) -> (at_ <= N.of_nat (length s))%N.
Proof. exact key_path_offset_in_range. Qed.
Print Assumptions C15_offset_in_range_key_path.

(* The message of a rejected document is non-empty (the error has a cause or a context),
   outside the known class: a bare CR at the error offset or right before it. *)
Theorem C15_message : forall (s : bytes) (e : perr) (at_ : option N),
  bare_cr_near_o s at_ = false -> parse_document s = PErr e at_ ->
  e_cause e <> None \/ e_ctx e = true.
Proof. exact message_nonempty. Qed.
Print Assumptions C15_message.

(* ... and inside that class the message IS empty: the known finding C15-empty-message-bare-cr.
   Witness: the 1-byte document CR (CR at the offset) ... *)
Theorem C15_message_refuted :
  exists s e at_, parse_document s = PErr e at_ /\ e_cause e = None /\ e_ctx e = false.
Proof. exact message_refuted_cr. Qed.
Print Assumptions C15_message_refuted.

(* ... and witness  a = [ CR ]  (CR right before the offset, not at it). *)
Theorem C15_message_refuted_array :
  exists s e at_, parse_document s = PErr e (Some at_) /\ e_cause e = None /\ e_ctx e = false
                  /\ bare_cr_b s (N.to_nat at_) = false /\ bare_cr_near s at_ = true.
Proof. exact message_refuted_array_cr. Qed.
Print Assumptions C15_message_refuted_array.

(* The same for the stand-alone entry points (Value::from_str, Key::from_str, Key::parse), which
   run `terminated(P, end_of_input)`.  A complete value / key followed by more input is rejected
   with the context "end of input" (`P.parse` alone rejects it with an empty message) ... *)
Theorem C15_message_trailing : forall (A : Type) (p : parser A) (s : bytes) (a : A) (i : input),
  p (new_input s) = Ok a i -> rest i <> [] ->
  parse_all (terminated_eoi p) s = Failed (mkErr None true) (pos i)
  /\ parse_all p s = Failed err0 (pos i).
Proof. exact (@parse_all_eoi_trailing_both). Qed.
Print Assumptions C15_message_trailing.

(* ... and nothing else differs: same accepted inputs and results, same panics (none), and a
   rejection keeps its offset and cause and never loses a context. *)
Theorem C15_eoi_same_accepted : forall (A : Type) (p : parser A) (s : bytes) (a : A),
  parse_all (terminated_eoi p) s = Done a <-> parse_all p s = Done a.
Proof. exact (@parse_all_eoi_done). Qed.
Print Assumptions C15_eoi_same_accepted.

Theorem C15_eoi_same_offset : forall (A : Type) (p : parser A) (s : bytes) (e : perr) (at_ : N),
  parse_all (terminated_eoi p) s = Failed e at_ ->
  exists e0, parse_all p s = Failed e0 at_ /\ e_cause e = e_cause e0 /\ (e_ctx e0 = true -> e_ctx e = true).
Proof. exact (@parse_all_eoi_failed). Qed.
Print Assumptions C15_eoi_same_offset.

(* Value::from_str: the message of a rejected value is non-empty outside the same known class as
   for documents (a bare CR at the error offset or right before it) ... *)
Theorem C15_message_value : forall (s : bytes) (e : perr) (at_ : option N),
  bare_cr_near_o s at_ = false -> parse_value_raw s = PErr e at_ ->
  e_cause e <> None \/ e_ctx e = true.
Proof. exact value_message. Qed.
Print Assumptions C15_message_value.

(* ... and the premise is needed: the value  [ CR ]  (the CR right before the offset). *)
Theorem C15_message_value_refuted :
  exists s e at_, parse_value_raw s = PErr e (Some at_) /\ e_cause e = None /\ e_ctx e = false
                  /\ bare_cr_near s at_ = true.
Proof. exact value_message_refuted. Qed.
Print Assumptions C15_message_value_refuted.

(* Key::parse (a dotted key path): every rejection has a message; no side condition. *)
Theorem C15_message_key_path : forall (s : bytes) (e : perr) (at_ : option N),
  parse_key_path s = PErr e at_ -> e_cause e <> None \/ e_ctx e = true.
Proof. exact key_path_message. Qed.
Print Assumptions C15_message_key_path.

(* Key::from_str (one simple key): every rejection has a message; no side condition
   (`simple_key` carries the context Label("key") around its whole dispatch). *)
Theorem C15_message_key : forall (s : bytes) (e : perr) (at_ : option N),
  parse_key s = PErr e at_ -> e_cause e <> None \/ e_ctx e = true.
Proof. exact key_message. Qed.
Print Assumptions C15_message_key.

(* All of it for one rejected document. *)
Theorem C15_located : forall (s : bytes) (e : perr) (at_ : N),
  utf8_valid_b s = true -> parse_document s = PErr e (Some at_) ->
  exists a b r,
    te_span (toml_error_new s e at_) = Some (a, b)
    /\ a <= b /\ b <= length s
    /\ char_boundary_b s (N.of_nat a) = true /\ char_boundary_b s (N.of_nat b) = true
    /\ a <= N.to_nat at_
    /\ render s (a, b) = ROk r
    /\ r_line_num r = lines_before s a + 1
    /\ r_col_num r = chars_since_line_start s a + 1.
Proof. exact located. Qed.
Print Assumptions C15_located.

(* ---- non-vacuity --------------------------------------------------------------------------- *)
(* the 7-byte document  QUOTE e-acute QUOTE SPACE e-acute : rejected at offset 5 (the second
   e-acute), span 5..7, rendered line 1 column 5 — the witness of the repaired defect F8 (was
   column 6) *)
Example C15_ex_f8 :
  let s := [x22; xc3; xa9; x22; x20; xc3; xa9] in
  utf8_valid_b s = true
  /\ (exists e, parse_document s = PErr e (Some 5%N) /\ e_ctx e = true)
  /\ char_span s 5 = (5, 7)
  /\ translate_position s 5 = (0, 4)
  /\ (exists r, render s (5, 7) = ROk r /\ r_line_num r = 1 /\ r_col_num r = 5).
Proof. vm_compute. repeat split; eauto. Qed.

(* end of input after a final newline: an unterminated multi-line string  a = QUOTE QUOTE QUOTE LF
   -> offset = length, line 1 (0-based 0), one past the newline *)
Example C15_ex_eof_newline :
  let s := [x61; x20; x3d; x20; x22; x22; x22; x0a] in
  (exists e, parse_document s = PErr e (Some 8%N) /\ bare_cr_near s 8 = false /\ e_ctx e = true)
  /\ char_span s 8 = (8, 8)
  /\ translate_position s 8 = (0, 8)
  /\ (lines_before s 8, chars_since_line_start s 8) = (0, 8).
Proof. vm_compute. repeat split; eauto. Qed.

(* the stand-alone entry points: the value `1 2`, the key `a b`, the key path `a.b c` are rejected
   where the complete value / key ends, meet the hypotheses of C15_message_value / _key /
   _key_path, and carry the context (`P.parse` alone: err0, an empty message) *)
Example C15_ex_value_trailing :
  let s := [x31; x20; x32] in
  parse_value_raw s = PErr (mkErr None true) (Some 1%N) /\ bare_cr_near_o s (Some 1%N) = false
  /\ lift_outcome (parse_all value_ s) = PErr err0 (Some 1%N).
Proof. vm_compute. repeat split. Qed.

Example C15_ex_key_trailing :
  let s := [x61; x20; x62] in
  parse_key s = PErr (mkErr None true) (Some 1%N)
  /\ lift_outcome (parse_all simple_key s) = PErr err0 (Some 1%N).
Proof. vm_compute. repeat split. Qed.

Example C15_ex_key_path_trailing :
  let s := [x61; x2e; x62; x20; x63] in
  parse_key_path s = PErr (mkErr None true) (Some 4%N)
  /\ lift_outcome (parse_all key_ s) = PErr err0 (Some 4%N).
Proof. vm_compute. repeat split. Qed.

(* an unterminated basic string as a key is rejected with a context from inside simple_key (not from
   end_of_input) *)
Example C15_ex_key_unterminated :
  parse_key [x22; x61] = PErr (mkErr None true) (Some 2%N).
Proof. vm_compute. reflexivity. Qed.

(* regression: the witnesses of the repaired finding C15-empty-message-key-start (Key::from_str of the
   empty input, of `!`, of a lone CR had an EMPTY message: e_ctx = false) now carry the context *)
Example C15_ex_key_start_repaired :
  parse_key [] = PErr (mkErr None true) (Some 0%N) /\ parse_key [x21] = PErr (mkErr None true) (Some 0%N)
  /\ parse_key [x0d] = PErr (mkErr None true) (Some 0%N).
Proof. exact key_message_former_witnesses. Qed.
