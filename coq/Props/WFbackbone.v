(* Props/WFbackbone.v — the shared backbone of C03 (general clause), C06 and C08 (text half):
   whatever tree is well-formed prints as valid TOML that decodes to the same data.
   Only statements, each closed by `exact`; proofs in Spec/WF.v (definition) and Proofs/WF*.v.

     WF root / WFdoc root trailing   Spec/WF.v: well-formed despanned trees, slot by slot: every decor is legal trivia
                        for its slot (after Display's CR stripping), a stored repr is a token of the scalar's kind
                        denoting it (an absent one needs a scalar the default writer is proved to write), key reprs
                        spell their keys, keys are distinct, arrays / inline tables hold values only, a table that has
                        no key/value line of its own and prints no header — an implicit table, or a table made of dotted
                        keys whose lines are gone — has a header printed below it,
                        the limits of Spec/Syntax.v, and `order_ok`: the positions do not decrease along the pre-order
                        walk (Display's stable sort by position then leaves the walk's order alone);
     wf_b / wfdoc_b     Proofs/WFBool.v: the decision procedure (tokens by the model's token parsers);
     abs_doc_of root    Proofs/WFTree.v: the data Display of the tree defines — the tree of Spec/Defs.v with, in every
                        table, what its key/value lines define first (values and tables made of dotted keys, a dotted
                        inline table being one) and then its sub-tables / arrays of tables; kind KHeader when a [header]
                        is printed, KSuper when not, KDotted for tables made of dotted keys that have a line of their
                        own (one without is only mentioned by the headers below it: KSuper, listed with the sub-tables);
     display_document   Model/Encode.v: Display for DocumentMut.

   The route: the printed text HAS A GRAMMAR DERIVATION (Spec/Syntax.v toml_text) whose statements, by the definition
   rules of Spec/Defs.v (the strict ones), define exactly `abs_doc_of` (WF_print_derivation); C01_complete and C02_tree
   then give acceptance and the decoded data (WF_print_parse).  No new reasoning about the parser.

   PARSED DOCUMENTS.  `parse_WF`: every accepted document, despanned (ImDocument::into_mut), satisfies ALL clauses of WF
   except `order_ok` — proved through the parser (Proofs/WFParse*.v: decor / reprs / keys / values / limits), C09's
   simulation (keys distinct, no Item::None, arrays of tables non-empty) and the specification side (a tree built by the
   definition rules has no empty super-table and no line-less dotted table).

   C03, GENERAL CLAUSE: `C03_general_reparse` — every accepted document whose statements the specification DECIDES
   (no step of class U1; the premise of C01_exact) prints a text that is accepted again and decodes to the same data,
   kinds included; whatever the order of its sections, with dotted keys in key/value lines, headers and inline tables.

   CONSTRUCTED DOCUMENTS.  `Built_WF`: whatever the construction API builds (Model/Build.v BuiltTbl, C06) is well-formed,
   once floats without a repr carry their text (render_tbl, the float oracle) and provided no array of tables is empty
   (`aot_ne`; an empty one prints nothing) — so C06's documents are instances of the backbone (C06_constructed_print_parse:
   the decoded data is `abs_doc_of`, kinds included).

   NOT COVERED (stated exactly):
     * class U1 ("[t.a.b]\n[t]\na.c.x=1": a dotted key through a super-table; the specification's verdict is
       Undecided): the clause is FALSE with kinds (wfb_ex_u1: the re-parsed tree has KHeader where the original has
       KSuper).  For such documents what is proved is parse_WF (all of WF but order_ok), the derivation for any order
       of the sections (WF_print_parse_any_order) and the reparse theorems under a decidable check
       (C03_general_reparse_replay_partial, C03_general_reparse_partial) — the check fails on wfb_ex_u1, as it must.
     * `order_ok` remains the premise of the order-free SEMANTIC theorem for arbitrary (edited, built) trees
       (WF_print_parse); for them `WF_print_parse_any_order` trades it for the validity of Display's statements. *)
From TV Require Import Base.Prelude Base.Utf8 Gen.Consts Spec.Lex Spec.Defs Spec.Syntax Spec.WF.
From TV Require Import Model.Tree Model.Document Model.Encode.
From TV Require Import Proofs.GrammarBase Proofs.PrintBackBase.
From TV Require Import Proofs.WFSem Proofs.WFSemDoc Proofs.WFBool Proofs.WFBoolSound Proofs.WFPrintValue Proofs.WFTree Proofs.WFPrintTop Proofs.WFReparse
                       Proofs.WFParseTop Proofs.WFReparseParsed Proofs.WFReplay Proofs.WFOrderDoc Proofs.WFOrderDotDoc.
From TV Require Import Model.Build Proofs.BuiltRTValue Proofs.BuiltRTTop Proofs.WFBuilt.
Require Import String Ascii.

(* ---- the backbone ------------------------------------------------------------------------------------------------------- *)
(* the printed text has a derivation, valid and within the limits, denoting the tree's data *)
Theorem WF_print_derivation : forall root trailing,
  WFdoc root trailing ->
  exists stmts, toml_text (display_document root trailing) stmts
                /\ verdict stmts = Valid (abs_doc_of root)
                /\ within_limits stmts = true.
Proof. exact WFPrintTop.WF_print_derivation. Qed.
Print Assumptions WF_print_derivation.

(* hence it is accepted and decodes to the tree's data *)
Theorem WF_print_parse : forall root trailing,
  WFdoc root trailing ->
  exists d, parse_document (display_document root trailing) = POk d /\ abs_doc d = abs_doc_of root.
Proof. exact WFPrintTop.WF_print_parse. Qed.
Print Assumptions WF_print_parse.

(* the decision procedure is sound *)
Theorem WF_decidable_sound : forall root trailing, wfdoc_b root trailing = true -> WFdoc root trailing.
Proof. exact wfdoc_b_sound. Qed.
Print Assumptions WF_decidable_sound.

(* ---- the pieces, usable on their own ---------------------------------------------------------------------------------- *)
(* values: Display of a well-formed value is <prefix> <val of the grammar> <suffix>, the val denoting the value's
   data, every inline table in it well-defined, within the limits at nesting depth d *)
Theorem WF_value_derivation : forall v c d dflt,
  value_wf c v -> value_lim d v -> dflt_ok dflt ->
  exists p t s a, encode_value (S (value_size v)) v dflt = p ++ t ++ s /\ slot_ok (pre_slot c) p /\ slot_ok (suf_slot c) s
                  /\ val_tok t a /\ den a = absv v /\ aval_ok a = true /\ within d a = true.
Proof. exact value_derivation. Qed.
Print Assumptions WF_value_derivation.

(* specification side, any leaf type: the statements of a tree — in every table its key/value lines (dotted keys
   flattened) and then, in order, the sections of its sub-tables (none for a hidden one) and arrays of tables — define
   the tree; dotted keys, header tables below tables made of dotted keys, super-tables never given a header *)
Theorem WF_statements_define : forall (V : Type) (l : sbody V),
  swf_body V l -> run true (body_stmts V [] l) = Valid (bres V l).
Proof. exact body_defines. Qed.
Print Assumptions WF_statements_define.

(* key/value statements with dotted keys, inside one table (inline tables, and the lines of one section) *)
Theorem WF_dotted_lines_define : forall (V : Type) (l : list (bytes * dnode V)),
  dwf V l -> inline_run (dflat V l) = Some (dres V l).
Proof. exact dfold_run. Qed.
Print Assumptions WF_dotted_lines_define.

(* ---- parsed documents ---------------------------------------------------------------------------------------------------- *)
(* every accepted document, despanned, is well-formed apart from the order of its sections *)
Theorem parse_WF : forall s d r t,
  parse_document s = POk d -> tbl_despan s (doc_root d) = Some r -> raw_despan s (doc_trailing d) = Some t ->
  (t_dotted r = false /\ tbl_wf true r /\ tbl_lim 0 0 r) /\ raw_ok SDocTrail t.
Proof. exact WFParseTop.parse_WF. Qed.
Print Assumptions parse_WF.

(* ... and wholly well-formed when its sections come in the order of the tree walk *)
Theorem parse_WF_ordered : forall s d r t,
  parse_document s = POk d -> tbl_despan s (doc_root d) = Some r -> raw_despan s (doc_trailing d) = Some t ->
  order_ok r -> WFdoc r t.
Proof. exact parsed_WF. Qed.
Print Assumptions parse_WF_ordered.

(* C03, general clause, under a decidable premise: the sections come in the order of the tree walk and `abs_doc_of`
   of the despanned tree is the document's data (`order_data_check`).  For decided documents
   C03_general_reparse below needs no such premise; this check also runs on documents of class U1. *)
Theorem C03_general_reparse_partial : forall s d o,
  parse_document s = POk d -> print_doc s d = Some o -> order_data_check s d = true ->
  exists d', parse_document o = POk d' /\ abs_doc d' = abs_doc d.
Proof. exact reparse_ordered. Qed.
Print Assumptions C03_general_reparse_partial.

(* ---- any order of the sections ------------------------------------------------------------------------------------------- *)
(* `replay_stmts root` (Proofs/WFReplay.v): the own statements — header, then key/value lines with dotted keys
   flattened — of the sections in Display's order (stable sort by position of the tree walk), computed from the tree
   without printing.  The printed text of a tree satisfying every clause of WF but `order_ok` has a derivation with
   exactly these statements; so if they are valid, the text is accepted and decodes to the tree they define.
   (That they define the tree itself is WF_statements_define, proved for the walk order.) *)
Theorem WF_print_parse_any_order : forall root trailing T,
  (t_dotted root = false /\ tbl_wf true root /\ tbl_lim 0 0 root) -> raw_ok SDocTrail trailing ->
  spec_run (replay_stmts root) = Valid T ->
  exists d, parse_document (display_document root trailing) = POk d /\ abs_doc d = T.
Proof. exact WF_print_parse_replay. Qed.
Print Assumptions WF_print_parse_any_order.

(* C03, general clause, as a certified check with NO other premise: `replay_check s d` runs the definition rules on
   `replay_stmts` of the despanned tree and compares the result with the document's data.  It holds for documents whose
   sections are in any order (wfb_ex_unordered_replay); it fails for class U1, as it must (wfb_ex_u1). *)
Theorem C03_general_reparse_replay_partial : forall s d o,
  parse_document s = POk d -> print_doc s d = Some o -> replay_check s d = true ->
  exists d', parse_document o = POk d' /\ abs_doc d' = abs_doc d.
Proof. exact reparse_replay. Qed.
Print Assumptions C03_general_reparse_replay_partial.

(* ---- C03, general clause, UNCONDITIONAL for documents whose key/value lines have undotted keys ------------------------- *)
(* `nodot (doc_root d)`: the parsed tree holds no table made of dotted keys, i.e. no key/value line was written with a
   dotted key (header paths of any length, dotted keys inside inline tables, comments, every layout are allowed).
   Then, WHATEVER THE ORDER OF THE SECTIONS (sub-tables before their parents, super-tables given a header later,
   interleaved elements of arrays of tables ...): the text the document prints is accepted again and decodes to the same
   data, kinds included.  No other premise.
   The semantic half, on the tree alone: Display's statements (replay_stmts) define the document's data.  Proved along
   the parse (Proofs/WFOrderDoc.v): the positioned sections of the state, sorted by position, are the statements read
   so far and run to the state of C09's simulation; on the relational view of descend_path (dctx_rel, Proofs/DocumentOps.v)
   and the sorting lemmas of Proofs/PrintBackSort.v (stable_sort_unique). *)
Theorem C03_replay_defines_undotted : forall s d,
  parse_document s = POk d -> nodot (doc_root d) = true -> spec_run (replay_stmts (doc_root d)) = Valid (abs_doc d).
Proof. exact nodot_replay. Qed.
Print Assumptions C03_replay_defines_undotted.

Theorem C03_general_reparse_undotted : forall s d o,
  parse_document s = POk d -> nodot (doc_root d) = true -> print_doc s d = Some o ->
  exists d', parse_document o = POk d' /\ abs_doc d' = abs_doc d.
Proof. exact reparse_nodot. Qed.
Print Assumptions C03_general_reparse_undotted.

(* ---- C03, general clause: EVERY accepted document the specification decides --------------------------------------------- *)
(* The premise is C01_exact's: no derivation of the text has a verdict Undecided, i.e. no key/value line runs a dotted
   key through a table that exists only as a super-table (class U1, DESIGN.md 3.3; wfb_ex_u1 shows the clause is false
   there).  Then the text the document prints — sections in Display's order, the key/value lines of each section
   regrouped by their dotted tables — is accepted again and decodes to the same data, kinds included.
   The semantic half (Proofs/WFOrderDot.v, WFOrderDotDoc.v): along the parse the open table is <the sub-tables it had
   when its header was read> ++ <entries made by its lines>; the printed lines of those entries rebuild them at the
   open section's place (WF_dotted_lines_define + C09's invariant); a decided step never descends into a super-table. *)
Theorem C03_replay_defines_decided : forall s d,
  parse_document s = POk d -> (forall stmts, toml_text s stmts -> verdict stmts <> Undecided) ->
  spec_run (replay_stmts (doc_root d)) = Valid (abs_doc d).
Proof. exact decided_replay. Qed.
Print Assumptions C03_replay_defines_decided.

Theorem C03_general_reparse : forall s d o,
  parse_document s = POk d -> (forall stmts, toml_text s stmts -> verdict stmts <> Undecided) -> print_doc s d = Some o ->
  exists d', parse_document o = POk d' /\ abs_doc d' = abs_doc d.
Proof. exact reparse_decided. Qed.
Print Assumptions C03_general_reparse.

(* for any tree, parsed or not, with the facts given as premises *)
Theorem C03_general_reparse_of_WF : forall s d r t,
  parse_document s = POk d -> tbl_despan s (doc_root d) = Some r -> raw_despan s (doc_trailing d) = Some t ->
  WFdoc r t -> abs_doc_of r = abs_doc d ->
  print_doc s d = Some (display_document r t)
  /\ exists d', parse_document (display_document r t) = POk d' /\ abs_doc d' = abs_doc d.
Proof. exact reparse_of_wf. Qed.
Print Assumptions C03_general_reparse_of_WF.

(* ---- constructed documents are well-formed --------------------------------------------------------------------------------- *)
(* for any admissible leaves PS / keys PK: a leaf must be within the limits and print through a default writer proved to
   write a token (for a float: the text `ftext f` it is rendered with is a float token denoting it); keys UTF-8 *)
Theorem Built_WF : forall (ftext : fval -> bytes) (PS : scalar -> Prop) (PK : bytes -> Prop),
  (forall s, PS s -> scalar_lim s /\ match s with SFloat f => float_tok (ftext f) f | _ => default_ok s end) ->
  (forall k, PK k -> utf8_valid_b k = true) ->
  forall t, BuiltTbl PS PK t -> aot_ne t = true -> tbl_hdepth t < LIMIT -> tbl_vdepth t < LIMIT ->
  WFdoc (render_tbl ftext t) REmpty.
Proof. exact built_WFdoc. Qed.
Print Assumptions Built_WF.

(* C06's leaves (scalar_ok, key_ok) and float text *)
Theorem C06_constructed_WF : forall t,
  BuiltTbl scalar_ok key_ok t -> aot_ne t = true -> tbl_hdepth t < LIMIT -> tbl_vdepth t < LIMIT ->
  WFdoc (render_tbl float_text t) REmpty.
Proof. exact constructed_WF. Qed.
Print Assumptions C06_constructed_WF.

Theorem C06_constructed_print_parse : forall t,
  BuiltTbl scalar_ok key_ok t -> aot_ne t = true -> tbl_hdepth t < LIMIT -> tbl_vdepth t < LIMIT ->
  exists d, parse_document (display_document (render_tbl float_text t) REmpty) = POk d
            /\ abs_doc d = abs_doc_of (render_tbl float_text t).
Proof. exact constructed_print_parse. Qed.
Print Assumptions C06_constructed_print_parse.

(* ---- examples (closed boolean checks, by vm_compute) ------------------------------------------------------------------- *)
Definition txt (s : string) : bytes := List.map byte_of_ascii (list_ascii_of_string s).
Definition lf : string := String (ascii_of_nat 10) EmptyString.
Definition cr : string := String (ascii_of_nat 13) EmptyString.
Definition dq : string := String (ascii_of_nat 34) EmptyString.
Open Scope string_scope.

(* comments in every decor slot, CRLF line ends (CR is stripped by Display: the despanned decor still holds it, WF
   looks at what is printed), dotted keys at top level, below a header and inside an inline table, a multi-line array
   with comments, an array of tables with a sub-table of an element, a multi-line string holding CR LF, a header
   below a table made of dotted keys, quoted keys, a last comment without line end: the despanned parsed tree is WF
   and Display's data is the document's data, so all three checks pass and the theorems apply *)
Definition ex_nasty : bytes :=
  txt ("# top" ++ cr ++ lf ++ "  a . b = 1 # c" ++ cr ++ lf ++ "a.c = [ # x" ++ lf ++ " 1 , # y" ++ lf ++ " 2, ] # z" ++ lf
       ++ "[t] # h" ++ lf ++ "p.q.r = { x.y = 1 , x.z = 2 , w = [ {q=1} ] }  " ++ lf ++ "  # above" ++ cr ++ lf
       ++ "[t.p.q.s]" ++ lf ++ "e = " ++ dq ++ dq ++ dq ++ cr ++ lf ++ "x" ++ cr ++ lf ++ dq ++ dq ++ dq ++ lf
       ++ "[[t.u]]" ++ lf ++ "k = 'v'" ++ lf ++ "[[t.u]]" ++ lf ++ "[t.u.v]" ++ lf ++ "z=1e3" ++ lf
       ++ "[ " ++ dq ++ "a b" ++ dq ++ " . 'c' ]" ++ lf ++ " 'k' . " ++ dq ++ "l" ++ dq ++ "  =  true  " ++ lf ++ " # last").
Definition ex_nasty_check : bool :=
  match parse_document ex_nasty with
  | POk d => reparse_check ex_nasty d && order_data_check ex_nasty d && replay_check ex_nasty d
  | _ => false
  end.
Example wfb_ex_nasty : ex_nasty_check = true.
Proof. vm_compute. reflexivity. Qed.

(* sections in orders that are not the order of the tree walk: a sub-table after an unrelated table, a super-table
   given its header later, elements of an array of tables interleaved with other sections and with sub-tables of
   the elements, dotted keys regrouped: every clause of WF but order_ok holds (parse_WF), `order_b` fails,
   `replay_check` holds, so C03_general_reparse_replay_partial applies *)
Definition ex_unordered : bytes :=
  txt ("a.b = 1" ++ lf ++ "c = 2" ++ lf ++ "a.d = 3" ++ lf ++ "[x.y]" ++ lf ++ "[x]" ++ lf ++ "[x.y.z]" ++ lf ++ "q.w=1" ++ lf
       ++ "[x.y.q.v]" ++ lf ++ "[[r]]" ++ lf ++ "[s]" ++ lf ++ "[[r]]" ++ lf ++ "[r.u]" ++ lf ++ "[s.t]" ++ lf).
Definition ex_unordered_check : bool :=
  match parse_document ex_unordered with
  | POk d => match tbl_despan ex_unordered (doc_root d) with
             | Some r => tbl_b true r && tbl_lim_b 0 0 r && negb (order_b r) && replay_check ex_unordered d
             | None => false
             end
  | _ => false
  end.
Example wfb_ex_unordered_replay : ex_unordered_check = true.
Proof. vm_compute. reflexivity. Qed.

(* class U1: a dotted key through a table that exists only as a super-table.  The document is accepted, its despanned
   tree satisfies every clause of WF but order_ok, it prints as valid TOML — `[t.a]` now has a header — and the
   re-parsed tree differs from the original in the KIND of t.a only; `replay_check` is false (the statements are
   Undecided under the strict rules, so the premise of C03_general_reparse fails: this is its boundary) *)
Definition ex_u1 : bytes := txt ("[t.a.b]" ++ lf ++ "[t]" ++ lf ++ "a.c.x=1" ++ lf).
Definition ex_u1_tree (kd : kind) : stree dval :=
  [(txt "t", NTab KHeader [(txt "a", NTab kd [(txt "b", NTab KHeader []); (txt "c", NTab KDotted [(txt "x", NVal (DInt 1))])])])].
Definition ex_u1_check : bool :=
  match parse_document ex_u1 with
  | POk d =>
    match tbl_despan ex_u1 (doc_root d), print_doc ex_u1 d with
    | Some r, Some o =>
      tbl_b true r && tbl_lim_b 0 0 r && negb (replay_check ex_u1 d)
      && bytes_eqb o (txt ("[t.a.b]" ++ lf ++ "[t]" ++ lf ++ lf ++ "[t.a]" ++ lf ++ "c.x=1" ++ lf))
      && match parse_document o with
         | POk d' => negb (stree_eqb (abs_doc d') (abs_doc d)) && stree_eqb (abs_doc d') (ex_u1_tree KHeader) && stree_eqb (abs_doc d) (ex_u1_tree KSuper)
         | _ => false
         end
    | _, _ => false
    end
  | _ => false
  end.
Example wfb_ex_u1 : ex_u1_check = true.
Proof. vm_compute. reflexivity. Qed.

(* a tree that no parser produced: the parsed tree of `[t]` / `x = 1` / `[t.s]` with a value inserted into `t` AFTER its
   sub-table (what Table::insert does): Display prints the new line in t's section, before `[t.s]`; the tree is WF, so
   the printed text decodes to `abs_doc_of` — t's lines first, then t.s *)
Definition ex_edited : tbl :=
  let k (s : string) := mkKey (txt s) None (mkDecor None None) (mkDecor None None) in
  let v (n : Z) := IValue (VScalar (SInt n) None (mkDecor None None)) in
  Tbl [(k "t", ITable (Tbl [(k "x", v 1%Z); (k "s", ITable (Tbl [] (mkDecor None None) false false None None)); (k "y", v 2%Z)]
                           (mkDecor None None) false false None None))]
      (mkDecor None None) false false None None.
Definition ex_edited_check : bool :=
  wfdoc_b ex_edited REmpty
  && bytes_eqb (display_document ex_edited REmpty) (txt ("[t]" ++ lf ++ "x = 1" ++ lf ++ "y = 2" ++ lf ++ lf ++ "[t.s]" ++ lf))
  && stree_eqb (abs_doc_of ex_edited)
       [(txt "t", NTab KHeader [(txt "x", NVal (DInt 1)); (txt "y", NVal (DInt 2)); (txt "s", NTab KHeader [])])].
Example wfb_ex_edited : ex_edited_check = true.
Proof. vm_compute. reflexivity. Qed.

(* the limitation of `order_ok`: sections that do not come in the order of the walk *)
Definition ex_abc : bytes := txt ("[a]" ++ lf ++ "[b]" ++ lf ++ "[a.c]" ++ lf).
Definition ex_abc_check : bool :=
  match parse_document ex_abc with
  | POk d => match tbl_despan ex_abc (doc_root d) with
             | Some r => tbl_b true r && tbl_lim_b 0 0 r && negb (order_b r) && replay_check ex_abc d && nodot (doc_root d)
             | None => false
             end
  | _ => false
  end.
Example wfb_ex_unordered : ex_abc_check = true.
Proof. vm_compute. reflexivity. Qed.

(* a constructed document: a float without a repr (rendered with its text), a table marked implicit (set_implicit(true),
   what toml's DocumentFormatter does) that still prints a header below itself: Built_WF applies, the decision procedure
   agrees, and Display prints what is expected *)
Definition ex_built : tbl :=
  let sc (x : scalar) := IValue (VScalar x None decor_default) in
  let tb (im : bool) (l : list (bytes * item)) := ITable (Tbl (mk_tbl_items l) decor_default im false None None) in
  Tbl (mk_tbl_items [(txt "a", sc (SFloat (FDec false 15 (-1)%Z))); (txt "t", tb true [(txt "u", tb false [(txt "x", sc (SInt 1%Z))])])])
      decor_default false false None None.
Definition ex_built_check : bool :=
  aot_ne ex_built && wfdoc_b (render_tbl float_text ex_built) REmpty
  && bytes_eqb (display_document (render_tbl float_text ex_built) REmpty) (txt ("a = 1.5" ++ lf ++ lf ++ "[t.u]" ++ lf ++ "x = 1" ++ lf)).
Example wfb_ex_built : ex_built_check = true.
Proof. vm_compute. reflexivity. Qed.

(* a table made of dotted keys whose last key/value line is gone, with a header below it (what Table::insert("b", table())
   at `a` leaves of `t.a.b = 1`; no parser produces it — a parsed dotted table has a line, parse_WF): a clause asking every
   table made of dotted keys to have a line would exclude it (recomputed here: it has none, but prints a header); Spec/WF.v
   asks for a line or a header below, so it is well-formed; Display
   prints only `[t.a.b]` below t's lines, and the data it defines has `a` as a SUPER-table behind the value stored after it *)
Definition ex_lineless : tbl :=
  let k (s : string) := mkKey (txt s) None (mkDecor None None) (mkDecor None None) in
  let v (n : Z) := IValue (VScalar (SInt n) None (mkDecor None None)) in
  let tb (im dt : bool) (l : list (key * item)) := ITable (Tbl l (mkDecor None None) im dt None None) in
  Tbl [(k "t", tb false false [(k "x", v 1%Z); (k "a", tb true true [(k "b", tb false false [])]); (k "y", v 2%Z)])]
      (mkDecor None None) false false None None.
Definition ex_lineless_check : bool :=
  wfdoc_b ex_lineless REmpty
  && match ex_lineless with
     | Tbl [(_, ITable (Tbl [_; (_, ITable a); _] _ _ _ _ _))] _ _ _ _ _ => t_dotted a && negb (has_line a) && prints_header a
     | _ => false
     end
  && bytes_eqb (display_document ex_lineless REmpty) (txt ("[t]" ++ lf ++ "x = 1" ++ lf ++ "y = 2" ++ lf ++ lf ++ "[t.a.b]" ++ lf))
  && stree_eqb (abs_doc_of ex_lineless)
       [(txt "t", NTab KHeader [(txt "x", NVal (DInt 1)); (txt "y", NVal (DInt 2)); (txt "a", NTab KSuper [(txt "b", NTab KHeader [])])])]
  && match parse_document (display_document ex_lineless REmpty) with
     | POk d => stree_eqb (abs_doc d) (abs_doc_of ex_lineless)
     | _ => false
     end.
Example wfb_ex_lineless_dotted : ex_lineless_check = true.
Proof. vm_compute. reflexivity. Qed.
