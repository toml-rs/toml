(* Props/C14spans.v — C14, second layer: whole-document span theorems (Proofs/Spans*.v).
   Only `Theorem ... Proof. exact lemma. Qed.` + `Print Assumptions` + `Example`s. *)
From TV Require Import Base.Prelude Base.Utf8 Base.Winnow Model.Tree Model.Parse Model.Document Model.Encode.
From TV Require Import Proofs.GrammarBase.
From TV Require Import Proofs.SpansDefs Proofs.SpansDoc Proofs.SpansDespan Proofs.SpansExact Proofs.SpansReparse.
From TV Require Import Proofs.SpansNestValue Proofs.SpansNestDoc.
From TV Require Import Proofs.SpansBoundary Proofs.SpansBdDoc Proofs.SpansDespanTotal.
From TV Require Import Proofs.SpansNodes Proofs.SpansNodesDoc.

(* 1. every span stored anywhere in a successfully parsed document (key reprs, key decor, value reprs and
      decor, array / inline-table trailing, table spans, array-of-tables spans, document trailing:
      `all_spans`, Proofs/SpansDefs.v) is a pair (a, b) with a <= b <= length source *)
Theorem C14_spans_in_range : forall s d,
  parse_document s = POk d ->
  Forall (fun sp => (fst sp <= snd sp)%N /\ (snd sp <= N.of_nat (length s))%N) (all_spans d).
Proof. exact spans_in_range. Qed.
Print Assumptions C14_spans_in_range.

(* 2a. `value` stores as the value's span exactly the window of the text it consumed (the repr of a scalar,
       the span of an array / inline table); that text is a non-empty prefix of the input; decor is cleared *)
Theorem C14_value_span_is_consumed : forall i v i',
  value_ i = Ok v i' ->
  value_span v = Some (pos i, pos i') /\ (pos i < pos i')%N /\ value_decor v = decor_new REmpty REmpty
  /\ exists t, rest i = t ++ rest i' /\ pos i' = (pos i + N.of_nat (length t))%N /\ t <> [].
Proof. exact value_exact. Qed.
Print Assumptions C14_value_span_is_consumed.

(* 2b. `simple_key` stores as the key's repr exactly the window of the key token *)
Theorem C14_key_span_is_consumed : forall i r k i',
  simple_key i = Ok (r, k) i' ->
  r = RSpanned (pos i) (pos i') /\ (pos i < pos i')%N
  /\ exists t, rest i = t ++ rest i' /\ pos i' = (pos i + N.of_nat (length t))%N /\ t <> [].
Proof. exact simple_key_span_exact. Qed.
Print Assumptions C14_key_span_is_consumed.

(* 2c. prefix-closedness of simple_key: on exactly the text it consumed it returns the same key and stops at
       the end *)
Theorem C14_simple_key_prefix_closed : forall i rw k i',
  simple_key i = Ok (rw, k) i' ->
  exists t, rest i = t ++ rest i' /\ pos i' = (pos i + N.of_nat (length t))%N
            /\ simple_key (new_input t) = Ok (raw_with_span (0, N.of_nat (length t))%N, k) (mkIn [] (N.of_nat (length t)) 0).
Proof. exact simple_key_prefix_closed. Qed.
Print Assumptions C14_simple_key_prefix_closed.

(* 2d. a key's span, used to slice the source, spells that same key (`cursor_of s i`: the cursor i points into s) *)
Theorem C14_key_reparse : forall s i rw k i',
  cursor_of s i -> simple_key i = Ok (rw, k) i' ->
  rw = RSpanned (pos i) (pos i') /\
  parse_key (slice s (pos i) (pos i')) = POk (raw_with_span (0, pos i' - pos i)%N, k).
Proof. exact key_reparse. Qed.
Print Assumptions C14_key_reparse.

(* 2e. a value's span, used to slice the source, re-parses to a value with the same data (`absv`: decor, reprs,
       spans and key spellings forgotten) — scalars, arrays and braces-delimited inline tables alike *)
Theorem C14_value_reparse : forall s i v i',
  cursor_of s i -> value_ i = Ok v i' ->
  value_span v = Some (pos i, pos i') /\
  exists v', parse_value_raw (slice s (pos i) (pos i')) = POk v' /\ absv v' = absv v.
Proof. exact value_reparse. Qed.
Print Assumptions C14_value_reparse.

(* 5. after despan (ImDocument::into_mut) no spanned raw string and no value / table / array-of-tables span
      remains anywhere in the tree *)
Theorem C14_despan_all : forall s d r t,
  tbl_despan s (doc_root d) = Some r -> raw_despan s (doc_trailing d) = Some t ->
  tbl_nospan r = true /\ raw_nospan t = true /\ all_spans (mkDoc r t) = [].
Proof. exact despan_all. Qed.
Print Assumptions C14_despan_all.

Theorem C14_despan_value : forall s v v', value_despan s v = Some v' -> value_nospan v' = true /\ value_spans v' = [].
Proof. exact despan_value. Qed.
Print Assumptions C14_despan_value.

(* 2f. ... at document level.  `tbl_nodes t` (Proofs/SpansNodes.v) lists every key stored anywhere in the tree as
       (text, repr) and every value node written as a value (scalar, array, braces-delimited inline table; not the
       tables made of dotted keys) as (span, data).  For a well-formed UTF-8 source, every key has a spanned repr
       whose slice spells that key, and every such value node has a span whose slice re-parses to the same data
       (`Pnode`, Proofs/SpansNodesDoc.v). *)
Theorem C14_reparse_all : forall s d,
  utf8_valid_b s = true -> parse_document s = POk d -> Forall (Pnode s) (tbl_nodes (doc_root d)).
Proof. exact reparse_all. Qed.
Print Assumptions C14_reparse_all.

(* 3. nesting (`vnest` / `tnest`, Proofs/SpansDefs.v).  Every value returned by `value`: all that an array or a
      braces-delimited inline table stores (elements, keys, decor, trailing text) lies inside its span; a table
      made of a dotted key inside braces spans its keys and values; recursively. *)
Theorem C14_nested_value : forall i v i', value_ i = Ok v i' -> vnest v = true.
Proof. exact value_nest. Qed.
Print Assumptions C14_nested_value.

(*    Every parsed document: where a table has a span, the repr of every key holding a value and that value's
      span lie inside it (table sections, and tables made of dotted keys — whose spans are widened to cover their
      entries); every value satisfies `vnest`; the elements of an array of tables lie inside the array's span. *)
Theorem C14_nested : forall s d, parse_document s = POk d -> tnest (doc_root d) = true.
Proof. exact parse_document_nest. Qed.
Print Assumptions C14_nested.

(*    ... spelled out: an element of an array lies inside the array's span (with its decor), and is nested itself;
      a key/value entry of a table with a span lies inside that span *)
Theorem C14_nested_array_elem : forall vals tr c d a b it,
  vnest (VArray vals tr c d (Some (a, b))) = true -> In it vals -> item_in a b it = true /\ inest it = true.
Proof. exact vnest_array_elem. Qed.
Print Assumptions C14_nested_array_elem.
Theorem C14_nested_table_entry : forall items d im dt p a b k v,
  tnest (Tbl items d im dt p (Some (a, b))) = true -> In (k, IValue v) items ->
  kspan_in a b k = true /\ osp_in a b (value_span v) = true /\ vnest v = true.
Proof. exact tnest_value_entry. Qed.
Print Assumptions C14_nested_table_entry.

(*    The stronger reading "a table made of a dotted key lies inside the span of its parent in the tree" is FALSE:
      `[t.a.q]` makes t.a an implicit super-table, `a.b.y = 2` under `[t]` puts the dotted table b (span 14-21) into
      it, and a later `[t.a]` header gives t.a the span 22-33.  (The implementation reports the same spans; the
      C14 oracle reads "child" syntactically, which this document satisfies.) *)
Theorem C14_dotted_table_inside_parent_refuted :
  exists s d, parse_document s = POk d /\ dotted_inside (doc_root d) = false /\ tnest (doc_root d) = true.
Proof. exact dotted_inside_refuted. Qed.
Print Assumptions C14_dotted_table_inside_parent_refuted.

(* 4. character boundaries: for a well-formed UTF-8 source, every span endpoint stored anywhere in the parsed
      document is a character boundary of the source (token boundaries are ASCII delimiters or ends of
      UTF-8-checked chunks: every parser consumes whole characters, Proofs/SpansUtf8Lex.v) *)
Theorem C14_char_boundaries : forall s d,
  utf8_valid_b s = true -> parse_document s = POk d ->
  Forall (fun sp => char_boundary_b s (fst sp) = true /\ char_boundary_b s (snd sp) = true) (all_spans d).
Proof. exact spans_on_char_boundaries. Qed.
Print Assumptions C14_char_boundaries.

(*    ... and at the level of one token (`at_ s i`: the cursor points into s, what remains is well-formed) *)
Theorem C14_value_span_boundaries : forall s i v i',
  at_ s i -> value_ i = Ok v i' ->
  value_span v = Some (pos i, pos i') /\ char_boundary_b s (pos i) = true /\ char_boundary_b s (pos i') = true.
Proof. exact value_span_boundaries. Qed.
Print Assumptions C14_value_span_boundaries.
Theorem C14_key_span_boundaries : forall s i r k i',
  at_ s i -> simple_key i = Ok (r, k) i' ->
  r = RSpanned (pos i) (pos i') /\ char_boundary_b s (pos i) = true /\ char_boundary_b s (pos i') = true.
Proof. exact key_span_boundaries. Qed.
Print Assumptions C14_key_span_boundaries.

(* 5'. consequence of 1 + 4: despan (ImDocument::into_mut) of a parsed well-formed UTF-8 document never fails: every
       `str::get(span)` of RawString::despan succeeds (the panic site P_span_slice is unreachable) *)
Theorem C14_despan_total : forall s d,
  utf8_valid_b s = true -> parse_document s = POk d ->
  exists r t, tbl_despan s (doc_root d) = Some r /\ raw_despan s (doc_trailing d) = Some t.
Proof. exact despan_total. Qed.
Print Assumptions C14_despan_total.

(* ---- 6. tables that have a header of their own have a span, wherever the header stands ------------------------------------ *)
From TV Require Import Proofs.SpansHeader.
(* the step: whatever a header opens — a fresh table, or an implicit table that headers of its sub-tables / of arrays of
   tables below it made earlier (`[a.b]` or `[[a.b]]` ... then `[a]`; ParseState::start_table takes that table out of the
   tree and re-opens it) — the open table is explicit and its span is the header's span *)
Theorem C14_header_opens_span : forall arr st path trailing sp st',
  on_header arr st path trailing sp = COk st' ->
  t_span (st_current st') = Some sp /\ t_implicit (st_current st') = false /\ t_dotted (st_current st') = false.
Proof. exact on_header_span. Qed.
Print Assumptions C14_header_opens_span.

(* the document: in EVERY accepted document, every table anywhere in the tree (`in_tree`: the root, entries of tables,
   elements of arrays of tables, at any depth) that is not implicit — i.e. has a header of its own, is an element of an
   array of tables, or is the root — has a span, and the span starts at a `[` of the text (offset 0 for the root).
   No condition on the order of the headers: a super-table given its header after its sub-tables is covered, and so is
   one given its header after an array of tables below it.  (Implicit tables: known finding C14-implicit-table-span.) *)
Theorem C14_explicit_table_span : forall s d u,
  parse_document s = POk d -> in_tree (doc_root d) u -> t_implicit u = false ->
  exists a b, t_span u = Some (a, b) /\ (a = 0%N \/ nth_error s (N.to_nat a) = Some x5b).
Proof. exact explicit_table_span. Qed.
Print Assumptions C14_explicit_table_span.

(* every element of every array of tables is explicit and has such a span *)
Theorem C14_aot_element_span : forall s d t k ts sp e,
  parse_document s = POk d -> in_tree (doc_root d) t -> In (k, IAot ts sp) (t_items t) -> In e ts ->
  t_implicit e = false /\ exists a b, t_span e = Some (a, b) /\ (a = 0%N \/ nth_error s (N.to_nat a) = Some x5b).
Proof. exact aot_element_span. Qed.
Print Assumptions C14_aot_element_span.

(* ---- examples: the hypotheses are satisfiable, the statements say something --------------------------------------- *)
(* "'é' = 'ü' # ö\n[t]\na.b = { x.y = 1, x.z = [ 2 ] }\n[[t.u]]\nk = 1\n[[t.u]]\n" (multi-byte characters, a dotted key, an
   inline table with a dotted key, an array, an array of tables) *)
Example c14_example_parses : exists d, parse_document c14_example = POk d /\ length (all_spans d) = 38
                                       /\ tnest (doc_root d) = true /\ dotted_inside (doc_root d) = true.
Proof. apply parsed_with. vm_compute. repeat split. Qed.
Example c14_example_despans : exists d r t, parse_document c14_example = POk d
                                            /\ tbl_despan c14_example (doc_root d) = Some r
                                            /\ raw_despan c14_example (doc_trailing d) = Some t.
Proof.
  destruct (parsed_with c14_example (fun d => exists r t, tbl_despan c14_example (doc_root d) = Some r
                                                          /\ raw_despan c14_example (doc_trailing d) = Some t))
    as (d & E & r & t & H); [|eauto].
  vm_compute. eexists. eexists. split; reflexivity.
Qed.
(* the key 'é' at the start of the text: its repr is (0, 4), and the slice spells the same key *)
Example c14_example_key : exists rw k i', simple_key (new_input c14_example) = Ok (rw, k) i'
                                          /\ rw = RSpanned 0 4 /\ k = [xc3; xa9]
                                          /\ parse_key (slice c14_example 0 4) = POk (raw_with_span (0, 4)%N, k).
Proof. eexists. eexists. eexists. vm_compute. repeat split. Qed.
(* the example is well-formed UTF-8 and has 15 nodes (9 keys, 6 value nodes): C14_char_boundaries, C14_reparse_all,
   C14_despan_total apply to it *)
Example c14_example_nodes : utf8_valid_b c14_example = true
                            /\ exists d, parse_document c14_example = POk d /\ length (tbl_nodes (doc_root d)) = 15.
Proof.
  split; [reflexivity|]. apply parsed_with. vm_compute. reflexivity.
Qed.

(* re-opened tables: `[a.b]` first makes `a` an implicit table without a span; its own header `[a]` (offset 6) then gives it
   the span 6..15 (header to the end of its last value), `a.b` keeps 0..5.  The same below an array of tables: in
   `[[a.b]]\n[a]\nx = 1\n` the element has 0..7 and `a` has 8..17.  Without `[a]` the table stays implicit and span-less. *)
Definition c14_tbl_at (t : tbl) (k : bytes) : option tbl :=
  match kv_get (t_items t) k with Some (_, ITable sub) => Some sub | _ => None end.
Definition c14_span_is (t : tbl) (im : bool) (sp : option (N * N)) : bool :=
  Bool.eqb (t_implicit t) im
  && match t_span t, sp with
     | Some (a, b), Some (a', b') => N.eqb a a' && N.eqb b b'
     | None, None => true
     | _, _ => false
     end.
Definition c14_reopen_check : bool :=
  let ka := [x61] in let kb := [x62] in
  match parse_document [x5b; x61; x2e; x62; x5d; x0a; x5b; x61; x5d; x0a; x78; x20; x3d; x20; x31; x0a] with
  | POk d => match c14_tbl_at (doc_root d) ka with
             | Some a => c14_span_is a false (Some (6, 15)%N)
                         && match c14_tbl_at a kb with Some b => c14_span_is b false (Some (0, 5)%N) | None => false end
             | None => false
             end
  | _ => false
  end
  && match parse_document [x5b; x5b; x61; x2e; x62; x5d; x5d; x0a; x5b; x61; x5d; x0a; x78; x20; x3d; x20; x31; x0a] with
     | POk d => match c14_tbl_at (doc_root d) ka with
                | Some a => c14_span_is a false (Some (8, 17)%N)
                            && match kv_get (t_items a) kb with
                               | Some (_, IAot [e] _) => c14_span_is e false (Some (0, 7)%N)
                               | _ => false
                               end
                | None => false
                end
     | _ => false
     end
  && match parse_document [x5b; x61; x2e; x62; x5d; x0a] with
     | POk d => match c14_tbl_at (doc_root d) ka with Some a => c14_span_is a true None | None => false end
     | _ => false
     end.
Example c14_example_reopened : c14_reopen_check = true.
Proof. vm_compute. reflexivity. Qed.
