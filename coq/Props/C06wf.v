(* Props/C06wf.v — C06's documents through the well-formedness backbone (Spec/WF.v; proofs in Proofs/WFBuilt.v by
   eng-c14, also listed in Props/WFbackbone.v where ./check C03 audits them): whatever the construction API builds is a
   well-formed document, so its text is accepted and decodes to the data Display of the tree defines — WITH table kinds
   (header / implicit super-table / dotted), which C06_document's abstract tree does not record.

   How the two relate on the same premises (C06_constructed_both): one parse, both conclusions.
     C06_document (Props/C06.v)      needs no `aot_ne`: an empty array of tables prints nothing and `printed_entries`
                                     says so (known class C06-empty-aot-dropped); says in which ORDER the entries come
                                     back (values before sub-tables); keys, nesting, scalar values — no table kinds.
     C06_constructed_print_parse     needs `aot_ne t` (no empty array of tables); `abs_doc d = abs_doc_of ..` is the
                                     specification's data (Spec/Defs.v stree with kinds), order-free per table.
   Neither implies the other; together they say the document is in the class the backbone theorems (C03) speak about. *)
From TV Require Import Base.Prelude Base.Utf8 Base.Winnow Gen.Consts Spec.Abnf Spec.Lex Spec.Defs Spec.Syntax Spec.WF.
From TV Require Import Model.Datetime Model.Numbers Model.Tree Model.Parse Model.Document Model.Write Model.Encode Model.Build.
From TV Require Import Proofs.GrammarBase Proofs.PrintBackBase Proofs.WFBool Proofs.WFTree Proofs.BuiltRTValue Proofs.BuiltRTTop Proofs.WFBuilt.

(* for any admissible leaves PS / keys PK: a leaf must be within the limits and print through a default writer proved to
   write a token (for a float: the text `ftext f` it is rendered with is a float token denoting it); keys UTF-8 *)
Theorem Built_WF : forall (ftext : fval -> bytes) (PS : scalar -> Prop) (PK : bytes -> Prop),
  (forall s, PS s -> scalar_lim s /\ match s with SFloat f => float_tok (ftext f) f | _ => default_ok s end) ->
  (forall k, PK k -> utf8_valid_b k = true) ->
  forall t, BuiltTbl PS PK t -> aot_ne t = true -> tbl_hdepth t < LIMIT -> tbl_vdepth t < LIMIT ->
  WFdoc (render_tbl ftext t) REmpty.
Proof. exact WFBuilt.built_WFdoc. Qed.
Print Assumptions Built_WF.

(* C06's leaves (scalar_ok, key_ok) and float text *)
Theorem C06_constructed_WF : forall t,
  BuiltTbl scalar_ok key_ok t -> aot_ne t = true -> tbl_hdepth t < LIMIT -> tbl_vdepth t < LIMIT ->
  WFdoc (render_tbl float_text t) REmpty.
Proof. exact WFBuilt.constructed_WF. Qed.
Print Assumptions C06_constructed_WF.

Theorem C06_constructed_print_parse : forall t,
  BuiltTbl scalar_ok key_ok t -> aot_ne t = true -> tbl_hdepth t < LIMIT -> tbl_vdepth t < LIMIT ->
  exists d, parse_document (display_document (render_tbl float_text t) REmpty) = POk d
            /\ abs_doc d = abs_doc_of (render_tbl float_text t).
Proof. exact WFBuilt.constructed_print_parse. Qed.
Print Assumptions C06_constructed_print_parse.

(* the same premises give both conclusions about the one parsed document *)
From TV Require Proofs.BuiltRTDoc.
Theorem C06_constructed_both : forall t,
  BuiltTbl scalar_ok key_ok t -> aot_ne t = true -> tbl_hdepth t < LIMIT -> tbl_vdepth t < LIMIT ->
  exists d, parse_document (display_document (render_tbl float_text t) REmpty) = POk d
            /\ abs_tbl (doc_root d) = printed_entries (abs_tbl t)
            /\ abs_doc d = abs_doc_of (render_tbl float_text t)
            /\ WFdoc (render_tbl float_text t) REmpty.
Proof.
  intros t Hb Hne Hh Hv.
  destruct (BuiltRTDoc.document_roundtrip t Hb Hh Hv) as (d & Ed & Ea).
  destruct (constructed_print_parse t Hb Hne Hh Hv) as (d' & Ed' & Ek).
  rewrite Ed in Ed'. injection Ed' as <-.
  exists d. split; [exact Ed|]. split; [exact Ea|]. split; [exact Ek|]. apply constructed_WF; assumption.
Qed.
Print Assumptions C06_constructed_both.
