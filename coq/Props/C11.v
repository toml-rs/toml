(* Props/C11.v — Numbers are lossless or rejected, never wrapped, saturated or rounded away.
   Only statements, each closed by `exact`; proofs are in Proofs/NumbersRT_*.v.

   Oracles (DESIGN.md 4.4): std's `{}` on f64/f32 and `str::parse::<f64>` are not modelled.
   The float theorems are about the repository's own logic (sign / NaN / zero cases, the ".0"
   suffix, underscore removal, the overflow guard) and take what is assumed of std as explicit
   premises (`std_finite_shape`, `std_roundtrip_hyp`, `overflows .. = false`); lib/props/c11.py
   tests those premises against an independent conversion on every generated case. *)
From TV Require Import Base.Prelude Base.Utf8 Base.Winnow Gen.Consts.
From TV Require Import Model.Datetime Model.Numbers Model.Tree Model.Parse Model.Document Model.Write.
From TV Require Import Model.WriteFloat Model.SerNum.
From TV Require Import Proofs.NumbersRT_Lex Proofs.NumbersRT_Int Proofs.NumbersRT_Value
                       Proofs.NumbersRT_Float Proofs.NumbersRT_Widen Proofs.NumbersRT_Ser.
From TV Require Import Extract.Show.
Require Import String.

(* ---- integers ---------------------------------------------------------------------------------- *)
(* every i64 prints as text that `integer` reads back completely as the same value, and that
   Value::from_str reads as that Integer (date_time and float are tried first and backtrack) *)
Theorem C11_int_roundtrip :
  forall z, in_i64 z = true ->
    integer (new_input (write_i64 z)) = Ok z (end_input (write_i64 z)) /\
    exists r d, parse_value_raw (write_i64 z) = POk (VScalar (SInt z) r d).
Proof. exact (fun z H => conj (integer_write_i64 z H) (value_write_i64 z H)). Qed.
Print Assumptions C11_int_roundtrip.

(* whatever the input, a value that comes out of `integer` is an i64: nothing wrapped or saturated *)
Theorem C11_int_no_wrap :
  forall i z i', integer i = Ok z i' -> in_i64 z = true.
Proof. exact integer_range. Qed.
Print Assumptions C11_int_no_wrap.

(* every well-formed literal of base 2/8/10/16 (prefix, digits, single underscores between digits,
   decimal with optional sign — `wf_lit`, written from the TOML grammar) whose value (`lit_value`,
   Horner over the digits) is outside [-2^63, 2^63) is refused with a committed error, whatever
   bytes follow it *)
Theorem C11_int_range :
  forall bs t r, wf_lit bs t = true -> in_i64 (lit_value bs t) = false ->
    is_cut (integer (new_input (t ++ r))).
Proof. exact int_range. Qed.
Print Assumptions C11_int_range.

Theorem C11_int_range_digits :
  forall ds r, forallb is_digit ds = true ->
    (exists d tl, ds = d :: tl /\ (49 <=? b2n d)%N = true) ->
    (two63 <= dec_value ds)%N -> is_cut (integer (new_input (ds ++ r))).
Proof. exact int_range_digits. Qed.
Print Assumptions C11_int_range_digits.

(* ---- floats: the overflow guard ------------------------------------------------------------------ *)
(* whenever the lexer float_ recognises a decimal literal t at the head of the input and the exact
   decimal it denotes is >= 2^1024 - 2^970 in magnitude, `float` fails with a committed error —
   for BOTH signs (FLOAT_REJECT_POS_INF and FLOAT_REJECT_NEG_INF from Gen/Consts.v are used) *)
Theorem C11_float_overflow :
  forall i t i' neg m e,
    float_ i = Ok t i' -> fdec_of_text (remove_us t) = FDec neg m e -> overflows m e = true ->
    is_cut (float i).
Proof. exact float_overflow. Qed.
Print Assumptions C11_float_overflow.

Theorem C11_float_overflow_value :
  forall s b tl t i' neg m e,
    s = b :: tl -> num_start b = true -> no_dt0 s ->
    float_ (new_input s) = Ok t i' -> fdec_of_text (remove_us t) = FDec neg m e -> overflows m e = true ->
    exists err at_, parse_value_raw s = PErr err at_.
Proof. exact value_float_overflow. Qed.
Print Assumptions C11_float_overflow_value.

(* a decimal literal never yields an infinity; what it yields does not overflow *)
Theorem C11_float_never_inf :
  forall i v i', and_then float_ float_of i = Ok v i' ->
    exists n m e, v = FDec n m e /\ overflows m e = false.
Proof. exact float_decimal_never_inf. Qed.
Print Assumptions C11_float_never_inf.

Theorem C11_float_inf_only_spelled :
  forall i n i', float i = Ok (FInf n) i' -> exists j, special_float i = Ok (FInf n) j.
Proof. exact float_inf_only_spelled. Qed.
Print Assumptions C11_float_inf_only_spelled.

(* the shortcuts in `overflows` (digit count + exponent window) are exact:
   exceeds m e  :=  2^1024 - 2^970 <= m * 10^e   (cross-multiplied on Z when e < 0) *)
Theorem C11_overflow_threshold_sound :
  forall m e, overflows m e = true <-> exceeds m e.
Proof. exact overflows_exact. Qed.
Print Assumptions C11_overflow_threshold_sound.

Theorem C11_ndigits_bounds :
  forall m, (0 < m)%N ->
    (1 <= Z.of_nat (ndigits m) /\
     10 ^ (Z.of_nat (ndigits m) - 1) <= Z.of_N m < 10 ^ Z.of_nat (ndigits m))%Z.
Proof. exact ndigits_bound. Qed.
Print Assumptions C11_ndigits_bounds.

(* ---- floats: the writer ------------------------------------------------------------------------------ *)
(* finite non-zero float: given the shape of std's text, the writer's text is read by `float`
   completely, as the decimal with the same sign and digits (".0" appended iff std printed no
   fraction), and Value::from_str sees a Float (never an Integer) *)
Theorem C11_float_write_shape :
  forall c text ip fp,
    fc_nan c = false -> fc_zero c = false -> std_finite_shape c text ip fp ->
    let m := dec_value (ip ++ toml_frac fp) in
    let e := (0 - Z.of_nat (List.length (toml_frac fp)))%Z in
    overflows m e = false ->
    float (new_input (write_float c text)) = Ok (FDec (fc_neg c) m e) (end_input (write_float c text)) /\
    exists r d, parse_value_raw (write_float c text) = POk (VScalar (SFloat (FDec (fc_neg c) m e)) r d).
Proof.
  exact (fun c text ip fp Hn Hz Hs Ho =>
           conj (float_write_finite c text ip fp Hn Hz Hs Ho) (value_write_finite c text ip fp Hn Hz Hs Ho)).
Qed.
Print Assumptions C11_float_write_shape.

(* NaN (sign kept), zero (sign kept), infinities *)
Theorem C11_float_write_nan :
  forall c text, fc_nan c = true ->
    float (new_input (write_float c text)) = Ok (FNan (fc_neg c)) (end_input (write_float c text)).
Proof. exact float_write_nan. Qed.
Print Assumptions C11_float_write_nan.

Theorem C11_float_write_zero :
  forall c text, fc_nan c = false -> fc_zero c = true ->
    float (new_input (write_float c text)) = Ok (FDec (fc_neg c) 0 (-1)) (end_input (write_float c text)).
Proof. exact float_write_zero. Qed.
Print Assumptions C11_float_write_zero.

Theorem C11_float_write_inf :
  forall c, fc_nan c = false -> fc_zero c = false -> fc_integral c = false ->
    float (new_input (write_float c (t_inf (fc_neg c)))) = Ok (FInf (fc_neg c)) (end_input (write_float c (t_inf (fc_neg c)))).
Proof. exact float_write_inf. Qed.
Print Assumptions C11_float_write_inf.

Theorem C11_float_write_special_value :
  forall c text,
    (fc_nan c = true \/ (fc_nan c = false /\ fc_zero c = true) \/
     (fc_nan c = false /\ fc_zero c = false /\ fc_integral c = false /\ text = t_inf (fc_neg c))) ->
    exists f r d, parse_value_raw (write_float c text) = POk (VScalar (SFloat f) r d) /\
                  float (new_input (write_float c text)) = Ok f (end_input (write_float c text)).
Proof. exact value_write_special. Qed.
Print Assumptions C11_float_write_special_value.

(* the round trip of finite floats reduced to the std oracle (`back (shortest b) = b`), f64 and f32 *)
Theorem C11_f64_roundtrip_under_std :
  forall (is_inf : N -> bool) (shortest : N -> bytes) (back : fval -> N),
    std_roundtrip_hyp classify64 is_inf shortest back ->
    forall b, fc_nan (classify64 b) = false -> fc_zero (classify64 b) = false -> is_inf b = false ->
      exists f r d,
        float (new_input (write_f64 b (shortest b))) = Ok f (end_input (write_f64 b (shortest b))) /\
        parse_value_raw (write_f64 b (shortest b)) = POk (VScalar (SFloat f) r d) /\
        back f = b.
Proof. exact (writer_roundtrip_finite classify64). Qed.
Print Assumptions C11_f64_roundtrip_under_std.

(* f32: the writer widens exactly (f64::from) and uses the f64 arm, so the text read back is the
   widened value itself; widening keeps sign / NaN-ness / zero-ness and is injective on non-NaN
   patterns, so narrowing the value read back gives the f32 that was written *)
Theorem C11_f32_roundtrip_under_std :
  forall (is_inf : N -> bool) (shortest : N -> bytes) (back : fval -> N),
    std_roundtrip_hyp classify64 is_inf shortest back ->
    forall b, fc_nan (classify32 b) = false -> fc_zero (classify32 b) = false -> is_inf (widen32 b) = false ->
      exists f r d,
        float (new_input (write_f32 b (shortest (widen32 b))))
        = Ok f (end_input (write_f32 b (shortest (widen32 b)))) /\
        parse_value_raw (write_f32 b (shortest (widen32 b))) = POk (VScalar (SFloat f) r d) /\
        back f = widen32 b.
Proof. exact f32_roundtrip_from_f64. Qed.
Print Assumptions C11_f32_roundtrip_under_std.

Theorem C11_f32_widen_exact :
  (forall b, fc_nan (classify64 (widen32 b)) = fc_nan (classify32 b)) /\
  (forall b, fc_zero (classify64 (widen32 b)) = fc_zero (classify32 b)) /\
  (forall b, fc_neg (classify64 (widen32 b)) = fc_neg (classify32 b)) /\
  (forall a b, (a < p32)%N -> (b < p32)%N ->
     fc_nan (classify32 a) = false -> fc_nan (classify32 b) = false -> widen32 a = widen32 b -> a = b).
Proof. exact (conj widen32_nan (conj widen32_zero (conj widen32_neg widen32_inj))). Qed.
Print Assumptions C11_f32_widen_exact.

(* NaN and zero of an f32 take the same fixed-text arms as an f64 *)
Theorem C11_f32_write_special :
  forall b text, fc_nan (classify32 b) = true \/ fc_zero (classify32 b) = true ->
    write_f32 b text = write_float (classify32 b) text.
Proof. exact write_f32_special. Qed.
Print Assumptions C11_f32_write_special.

(* ---- serde widths --------------------------------------------------------------------------------------- *)
Theorem C11_ser_checked :
  (forall t z, in_ty t z = true -> fits_i64 z = false -> ser_int t z = None /\ tv_ser_int t z = None) /\
  (forall z, fits_i64 z = false -> serialize_u64 z = None /\ tv_serialize_u64 z = None) /\
  (forall z, serialize_i128 z = None /\ serialize_u128 z = None) /\
  (forall t z, in_ty t z = false -> de_int t z = None).
Proof. exact (conj ser_beyond_i64_err (conj serialize_u64_checked (conj serialize_128_err de_out_of_range_err))). Qed.
Print Assumptions C11_ser_checked.

(* what does get through is exact *)
Theorem C11_ser_exact :
  (forall t z v, in_ty t z = true -> ser_int t z = Some v -> v = z /\ fits_i64 v = true) /\
  (forall t z v, in_ty t z = true -> tv_ser_int t z = Some v -> v = z /\ fits_i64 v = true) /\
  (forall t z v, de_int t z = Some v -> v = z /\ in_ty t z = true) /\
  (forall t z, de_forwarded t = true -> in_ty t z = true -> de_int t z = Some z).
Proof. exact (conj ser_exact (conj tv_ser_exact (conj de_exact de_in_range_ok))). Qed.
Print Assumptions C11_ser_exact.

(* ---- examples: the hypotheses are satisfiable, the edges behave as stated ------------------------------ *)
Example ex_i64_min : integer (new_input (write_i64 i64_min)) = Ok i64_min (end_input (write_i64 i64_min)).
Proof. vm_compute. reflexivity. Qed.
Example ex_i64_max : integer (new_input (write_i64 i64_max)) = Ok i64_max (end_input (write_i64 i64_max)).
Proof. vm_compute. reflexivity. Qed.
Example ex_i64_zero : exists r d, parse_value_raw (write_i64 0) = POk (VScalar (SInt 0) r d).
Proof. vm_compute. eauto. Qed.
Example ex_i64_m1 : exists r d, parse_value_raw (write_i64 (-1)) = POk (VScalar (SInt (-1)) r d).
Proof. vm_compute. eauto. Qed.

Example ex_wf_dec : wf_lit B10 (str "9223372036854775808") = true /\ in_i64 (lit_value B10 (str "9223372036854775808")) = false.
Proof. vm_compute. auto. Qed.
Example ex_wf_dec_neg : wf_lit B10 (str "-9_223_372_036_854_775_809") = true /\ in_i64 (lit_value B10 (str "-9_223_372_036_854_775_809")) = false.
Proof. vm_compute. auto. Qed.
Example ex_wf_hex : wf_lit B16 (str "0x8000_0000_0000_0000") = true /\ in_i64 (lit_value B16 (str "0x8000_0000_0000_0000")) = false.
Proof. vm_compute. auto. Qed.
Example ex_wf_in_range : wf_lit B16 (str "0x7fff_FFFF_ffff_FFFF") = true /\ in_i64 (lit_value B16 (str "0x7fff_FFFF_ffff_FFFF")) = true.
Proof. vm_compute. auto. Qed.

Example ex_rej_dec : is_cut (integer (new_input (str "9223372036854775808"))).
Proof. vm_compute. exact I. Qed.
Example ex_rej_dec_neg : is_cut (integer (new_input (str "-9223372036854775809"))).
Proof. vm_compute. exact I. Qed.
Example ex_rej_hex : is_cut (integer (new_input (str "0x8000000000000000"))).
Proof. vm_compute. exact I. Qed.
Example ex_rej_oct : is_cut (integer (new_input (str "0o1000000000000000000000"))).
Proof. vm_compute. exact I. Qed.
Example ex_rej_bin : is_cut (integer (new_input (str "0b1" ++ List.repeat x30 63))).
Proof. vm_compute. exact I. Qed.
Example ex_acc_hex : integer (new_input (str "0x7fffffffffffffff")) = Ok i64_max (end_input (str "0x7fffffffffffffff")).
Proof. vm_compute. reflexivity. Qed.
Example ex_acc_min : integer (new_input (str "-9223372036854775808")) = Ok i64_min (end_input (str "-9223372036854775808")).
Proof. vm_compute. reflexivity. Qed.

Example ex_rej_1e309 : is_cut (float (new_input (str "1e309"))).
Proof. vm_compute. exact I. Qed.
Example ex_rej_m1e309 : is_cut (float (new_input (str "-1e309"))).
Proof. vm_compute. exact I. Qed.
Example ex_rej_edge : is_cut (float (new_input (str "1.7976931348623159e308"))).
Proof. vm_compute. exact I. Qed.
Example ex_rej_edge_neg : is_cut (float (new_input (str "-1.7976931348623159e308"))).
Proof. vm_compute. exact I. Qed.
Example ex_acc_max : float (new_input (str "1.7976931348623157e308"))
                     = Ok (FDec false 17976931348623157 292) (end_input (str "1.7976931348623157e308")).
Proof. vm_compute. reflexivity. Qed.
Example ex_overflow_hyp :
  exists t i', float_ (new_input (str "-1e309 # x")) = Ok t i' /\
               fdec_of_text (remove_us t) = FDec true 1 309 /\ overflows 1 309 = true.
Proof. do 2 eexists. split; [vm_compute; reflexivity|]. split; vm_compute; reflexivity. Qed.

(* std's text for 1.5 ("1.5") and for 3.0 ("3"): the shape hypotheses hold and the writer gives "1.5" / "3.0" *)
Example ex_shape_1_5 :
  std_finite_shape (classify64 4609434218613702656) (str "1.5") (str "1") (str "5").
Proof.
  constructor; [reflexivity | left; split; [reflexivity | exists x31, []; split; reflexivity] | reflexivity
               | split; intro H; vm_compute in H; discriminate].
Qed.
Example ex_shape_3 :
  std_finite_shape (classify64 4613937818241073152) (str "3") (str "3") [].
Proof.
  constructor; [reflexivity | left; split; [reflexivity | exists x33, []; split; reflexivity] | reflexivity
               | split; intro H; [reflexivity | vm_compute; reflexivity]].
Qed.
Example ex_write_3 : write_f64 4613937818241073152 (str "3") = str "3.0".
Proof. vm_compute. reflexivity. Qed.
Example ex_write_f32_1 : write_f32 1065353216 (str "1") = str "1.0".       (* F2: 1.0f32 *)
Proof. vm_compute. reflexivity. Qed.
(* 7.038531e-26f32 (0x15ae43fd): written through its exact widening 0x3ab5c87fa0000000 *)
Example ex_widen_witness : widen32 363742205 = 4230507875455205376%N.
Proof. vm_compute. reflexivity. Qed.
Example ex_write_neg_nan : write_f64 18444492273895866368 (str "NaN") = str "-nan".
Proof. vm_compute. reflexivity. Qed.
Example ex_write_inf : write_f64 9218868437227405312 (str "inf") = str "inf".
Proof. vm_compute. reflexivity. Qed.

Example ex_ser_u64 : ser_int TU64 18446744073709551615 = None /\ ser_int TU64 9223372036854775807 = Some 9223372036854775807%Z.
Proof. vm_compute. auto. Qed.
Example ex_de_u8 : de_int TU8 256 = None /\ de_int TU8 255 = Some 255%Z /\ de_int TI8 (-129) = None.
Proof. vm_compute. auto. Qed.
