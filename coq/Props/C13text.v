(* Props/C13text.v — property C13 at the level of TEXT: every decoding route of the two crates, as a function of the
   byte string, gives the same answer.  Statements only; model in Proofs/C13TextModel.v (each route written after
   the call structure of its source), proofs in Proofs/C13Text.v, on top of
     Props/C13.v      the routes on the value tree (decode, twins)
     Props/C07text.v  the text a serializer writes parses back
     Props/C14spans.v into_mut (despan) never fails on a parsed &str
     the parser model (Model/Document.v) and the state-machine invariant (distinct keys in every parsed table).

   Routes (harness/src/bin/serde/routes.rs names): t = toml::from_str, e = toml_edit::de::from_str,
   esl = toml_edit::de::from_slice, edoc / eim = from_document(DocumentMut / ImDocument), efs = s.parse::<de::Deserializer>(),
   tval = toml::from_str::<toml::Value>(s)?.try_into(), ttab = s.parse::<toml::Table>()?.try_into().
   WHICH ROUTES ARE THE SAME CODE: esl calls e after the UTF-8 check; `impl FromStr for Value / Table` call t;
   t, e, eim, efs each perform `ImDocument::parse` then `T::deserialize(Deserializer { root, raw })` themselves (t through
   `toml_edit::de::Deserializer::parse` inside every `deserialize_*` method, NOT through toml_edit::de::from_str);
   edoc runs into_mut (despan) between the two.  `raw` only decorates errors: locations are C15's business.

   `back` is the float oracle of C07text (str::parse::<f64> on a float token); `walk back root` the tree the
   deserializer walks (Model/SerDoc.v tomlval_of_abs).  A &str is valid UTF-8: `utf8_valid_b s = true` is the type of the
   string routes; from_slice is the only route that can be handed other bytes.
   TUnmodelled: Model/De.v does not follow three deserializer paths (an integer for a float target, a date-time where a
   struct or map is expected, a private struct name); such results are outside "succeeds". *)
From TV Require Import Base.Prelude Base.Utf8 Gen.Consts.
From TV Require Import Model.Numbers Model.Document Model.SerNum.
From TV Require Import Spec.SerdeData Model.De Model.SerdeRoutes Model.SerDoc.
From TV Require Import Proofs.SerDocDe Proofs.C13TextModel Proofs.C13Text Extract.Show.

(* ---- (a) the routes agree --------------------------------------------------------------------------------------- *)
(* the four compositions of parse and deserialize are one function, for every target (a type, toml::Value, toml::Table)
   and EVERY byte string *)
Theorem C13_text_same_code : forall back tg s,
  toml_from_str back tg s = edit_from_str back tg s /\ route_im back tg s = edit_from_str back tg s
  /\ route_fromstr back tg s = edit_from_str back tg s.
Proof. exact direct_routes_same. Qed.
Print Assumptions C13_text_same_code.

(* the bytes entry point: invalid UTF-8 is an error before anything else, valid UTF-8 is the string entry point *)
Theorem C13_text_slice : forall back tg bs,
  (utf8_valid_b bs = true -> edit_from_slice back tg bs = edit_from_str back tg bs)
  /\ (utf8_valid_b bs = false -> edit_from_slice back tg bs = TUtf8Err).
Proof. exact slice_route. Qed.
Print Assumptions C13_text_slice.

(* from_document(DocumentMut): into_mut succeeds and the deserializer walks the same tree *)
Theorem C13_text_document_mut : forall back tg s, utf8_valid_b s = true -> route_mut back tg s = edit_from_str back tg s.
Proof. exact mut_route. Qed.
Print Assumptions C13_text_document_mut.

Theorem C13_into_mut_same_tree : forall back s d root, into_mut s d = Some root -> walk back root = walk back (doc_root d).
Proof. exact into_mut_walk. Qed.
Print Assumptions C13_into_mut_same_tree.

(* hence: the six direct routes return THE SAME RESULT (value or kind of error) on every &str *)
Theorem C13_text_direct_routes : forall back r t s, utf8_valid_b s = true -> direct_route r = true ->
  run_route back r t s = edit_from_str back (ToTy t) s.
Proof. exact direct_routes_agree. Qed.
Print Assumptions C13_text_direct_routes.

(* every route is the tree-level route of Props/C13.v on the tree of the parsed document *)
Theorem C13_text_is_decode : forall back r t s v, utf8_valid_b s = true -> run_route back r t s = TOk (OVal v) ->
  exists d, parse_document s = POk d /\ decode (tree_route r) t (walk back (doc_root d)) = Ok v.
Proof. exact route_is_decode. Qed.
Print Assumptions C13_text_is_decode.

(* ALL EIGHT ROUTES: any two that succeed return equal values.  twin_ty: no map keyed by char (Props/C13.v); the table
   route needs a root whose first key is not the private name (F14) — that its keys are distinct is proved *)
Theorem C13_text_routes_agree : forall back r1 r2 t s v1 v2,
  utf8_valid_b s = true -> twin_ty t = true ->
  (r1 = Tttab \/ r2 = Tttab -> forall d, parse_document s = POk d -> root_first_private d = false) ->
  run_route back r1 t s = TOk (OVal v1) -> run_route back r2 t s = TOk (OVal v2) -> sval_eq v1 v2 \/ sval_eq v2 v1.
Proof. exact text_routes_agree. Qed.
Print Assumptions C13_text_routes_agree.

(* the parser's verdict is every route's verdict; no route panics *)
Theorem C13_text_parse_verdict : forall back r t s, utf8_valid_b s = true ->
  (run_route back r t s = TParseErr <-> exists e a, parse_document s = PErr e a) /\ run_route back r t s <> TPanic.
Proof. intros back r t s Hu. split; [apply route_parse_error, Hu|apply no_route_panics, Hu]. Qed.
Print Assumptions C13_text_parse_verdict.

Theorem C13_parsed_root_plain : forall back s d,
  parse_document s = POk d -> root_first_private d = false -> plain_root (walk back (doc_root d)) = true.
Proof. exact parsed_root_plain. Qed.
Print Assumptions C13_parsed_root_plain.

(* ---- (b) on the text a serializer writes ------------------------------------------------------------------------- *)
(* hypotheses of C07_text_roundtrip.  The direct routes succeed and return the value; esl and edoc need the text to be
   UTF-8 — it is a Rust `String`; that the PRINTED BYTES of the model are valid UTF-8 is not proved *)
Theorem C13_text_on_serialized_direct : forall fd back, float_oracle fd back -> forall r0 ty v out,
  has_type v ty -> utf8_ty ty = true -> utf8_sv v = true ->
  ser_text r0 ty v = SerdeData.Ok out -> tv_depth out <= LIMIT ->
  exists text d v',
    ser_text_bytes fd r0 ty v = Some text /\ parse_document text = POk d /\ sval_eq v v'
    /\ tv_equiv out (walk back (doc_root d))
    /\ (forall r, r = Tt \/ r = Te \/ r = Teim \/ r = Tefs -> run_route back r ty text = TOk (OVal v'))
    /\ (utf8_valid_b text = true -> forall r, direct_route r = true -> run_route back r ty text = TOk (OVal v')).
Proof. exact serialized_direct. Qed.
Print Assumptions C13_text_on_serialized_direct.

(* the routes through toml::Value / toml::Table too, when no table key of the serialized tree spells the private
   name (F14) — for all four text serializers, date-times and NaNs included *)
From TV Require Import Proofs.C13TextTwin Proofs.C13TextSer.
Theorem C13_text_on_serialized_value_first : forall fd back, float_oracle fd back -> forall r0 ty v out,
  has_type v ty -> utf8_ty ty = true -> utf8_sv v = true ->
  ser_text r0 ty v = SerdeData.Ok out -> tv_depth out <= LIMIT -> tunnel_free out = true ->
  exists text v2,
    ser_text_bytes fd r0 ty v = Some text /\ sval_eq v v2
    /\ run_route back Ttval ty text = TOk (OVal v2) /\ run_route back Tttab ty text = TOk (OVal v2).
Proof. exact serialized_value_first. Qed.
Print Assumptions C13_text_on_serialized_value_first.

(* the three tree-level facts behind it: sval_eq is transitive; toml::Value's visitor forgets the order of table
   entries; Value::try_into does not see the payload of a NaN *)
Theorem C13_sval_eq_trans : forall a b c, sval_eq a b -> sval_eq b c -> sval_eq a c.
Proof. exact sval_eq_trans. Qed.
Print Assumptions C13_sval_eq_trans.

Theorem C13_value_visitor_any_order : forall x x' y,
  tv_equiv x x' -> tunnel_free x = true -> to_toml_value x = Ok y -> exists y', to_toml_value x' = Ok y' /\ feq y y'.
Proof. exact conv_equiv. Qed.
Print Assumptions C13_value_visitor_any_order.

Theorem C13_try_into_nan_payload : forall t y y' v, feq y y' -> tv_de t y = Ok v -> exists v', tv_de t y' = Ok v' /\ sval_eq v v'.
Proof. exact tv_de_feq_ok. Qed.
Print Assumptions C13_try_into_nan_payload.

(* ---- (c) what remains excluded ---------------------------------------------------------------------------------- *)
Require Import String.
Open Scope string_scope.
Definition no_floats (f : fval) : N := 0%N.       (* `back` for texts without floats *)
Definition no_fd (b : N) : fval := FNan false.    (* `fd` for values without floats *)
Definition all_routes : list text_route := [Tt; Te; Tesl; Tedoc; Teim; Tefs; Ttval; Tttab].
Definition answers (t : ty) (s : bytes) : list tres := map (fun r => run_route no_floats r t s) all_routes.

(* F14 (private-datetime-key) ON SERIALIZED TEXT: struct S { m: BTreeMap<String, i32> } with the private name as a key.
   toml::to_string writes `[m]` / `"$__toml_private_datetime" = 127`; the six direct routes return the value, the
   two routes through toml::Value refuse (its visitor takes the table m for a date-time).  Observed on the
   crates (harness `routes`): t e esl edoc eim efs = ok, tval ttab = err. *)
Definition f14_ty : ty := TStruct (str "S") [(str "m", TMap TStr (TInt TI32))].
Definition f14_val : sval := SRec [SMap [(SStr DT_FIELD, SInt 127)]].
Definition f14_text : bytes := (str "[m]" ++ [x0a] ++ str """$__toml_private_datetime"" = 127" ++ [x0a])%list.
Theorem C13_text_f14_refuted :
  has_type f14_val f14_ty
  /\ ser_text_bytes no_fd TomlString f14_ty f14_val = Some f14_text
  /\ match ser_text TomlString f14_ty f14_val with SerdeData.Ok out => tunnel_free out | _ => true end = false
  /\ answers f14_ty f14_text
     = [TOk (OVal f14_val); TOk (OVal f14_val); TOk (OVal f14_val); TOk (OVal f14_val); TOk (OVal f14_val); TOk (OVal f14_val);
        TDeErr; TDeErr].
Proof. repeat split; vm_compute; reflexivity. Qed.
Print Assumptions C13_text_f14_refuted.

(* THE VERDICTS of the two families differ without F14 (Props/C13.v C13_ex_disagree_on_success_only, now on text):
   a = [1, 2, 3] read as struct S { a: (i8, i8) } — toml_edit's deserializer ignores the rest of the array, toml::Value's
   refuses.  They never succeed with different answers (C13_text_routes_agree).  Observed on the crates: the same. *)
Definition arity_ty : ty := TStruct (str "S") [(str "a", TTuple [TInt TI8; TInt TI8])].
Definition arity_text : bytes := (str "a = [1, 2, 3]" ++ [x0a])%list.
Theorem C13_text_same_verdict_refuted :
  answers arity_ty arity_text
  = let ok := TOk (OVal (SRec [SSeq [SInt 1; SInt 2]])) in [ok; ok; ok; ok; ok; ok; TDeErr; TDeErr].
Proof. vm_compute. reflexivity. Qed.
Print Assumptions C13_text_same_verdict_refuted.

(* F14 at the root, outside the model: `"$__toml_private_datetime" = "1979-05-27"` / `b = "x"` read as
   BTreeMap<String, String>.  toml::from_str::<toml::Value> takes the ROOT for a date-time; what try_into makes of a
   date-time for a map target is a path Model/De.v does not follow (TUnmodelled).  Observed on the crates: tval succeeds
   with the one-entry map { "$__toml_private_datetime": "1979-05-27" } — the key b is lost — while the other seven routes
   return both entries: the known class F14, no new finding. *)
Definition root_text : bytes :=
  (str """$__toml_private_datetime"" = ""1979-05-27""" ++ [x0a] ++ str "b = ""x""" ++ [x0a])%list.
Example C13_text_f14_root :
  let both := TOk (OVal (SMap [(SStr DT_FIELD, SStr (str "1979-05-27")); (SStr (str "b"), SStr (str "x"))])) in
  answers (TMap TStr TStr) root_text = [both; both; both; both; both; both; TUnmodelled; both]
  /\ match parse_document root_text with POk d => root_first_private d | _ => false end = true.
Proof. split; vm_compute; reflexivity. Qed.

(* invalid UTF-8: the bytes route answers with its own error; bytes that are no &str (here a lone 0xFF in a comment,
   which the parser model does not look into) cannot be handed to the other routes *)
Example C13_text_invalid_utf8 :
  run_route no_floats Tesl (TMap TStr TStr) [x23; xff; x0a] = TUtf8Err /\ utf8_valid_b [x23; xff; x0a] = false.
Proof. split; vm_compute; reflexivity. Qed.

(* ---- non-vacuity: the example of Props/C13.v through text -------------------------------------------------------- *)
From TV Require Props.C13.
Definition ex_text13 : bytes := match ser_text_bytes no_fd TomlString C13.ex_ty C13.ex_val with Some t => t | None => [] end.
Definition same (r : tres) (v : sval) : bool := match r with TOk (OVal v') => sval_beq v' v | _ => false end.
Example C13_text_ex :
  utf8_valid_b ex_text13 = true
  /\ forallb (fun r => same (run_route no_floats r C13.ex_ty ex_text13) C13.ex_val) [Tt; Te; Tesl; Tedoc; Teim; Tefs] = true
  /\ forallb (fun r => same (run_route no_floats r C13.ex_ty ex_text13) C13.ex_val_sorted) [Ttval; Tttab] = true.
Proof. repeat split; vm_compute; reflexivity. Qed.
