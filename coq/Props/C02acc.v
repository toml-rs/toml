(* Props/C02acc.v — property C02, the READ API: what a caller sees when looking at the decoded tree through
   Item / Value type_name, is_x, as_x, as_table_like, Item::get (by key, by index), Array::get, InlineTable::get and
   doc["k"] (Model/Accessors.v, transcribed from toml_edit's value.rs, item.rs, index.rs) is the decoded tree itself:
   C02_tree says the tree is what the document denotes, these say the accessors read that tree faithfully.
   Statements only; proofs in Proofs/AccessorsSpec.v, Proofs/AccessorsParsed.v.  The same functions print the `acc`
   observation the correspondence run compares with the crates (Extract/Commands.v cmd_acc, harness tree.rs cmd_acc). *)
From TV Require Import Base.Prelude Model.Tree Model.Document Model.Encode Extract.Show Model.Accessors.
From TV Require Import Proofs.AccessorsSpec Proofs.AccessorsParsed.
Require Import String.

(* every value is of exactly one of the seven kinds, every item of exactly one of the four *)
Theorem C02acc_value_kind_exclusive : forall v,
  count_true [value_is_str v; value_is_integer v; value_is_float v; value_is_bool v; value_is_datetime v;
              value_is_array v; value_is_inline_table v] = 1.
Proof. exact value_kind_exclusive. Qed.
Print Assumptions C02acc_value_kind_exclusive.

Theorem C02acc_item_kind_exclusive : forall it,
  count_true [item_is_none it; item_is_value it; item_is_table it; item_is_aot it] = 1.
Proof. exact item_kind_exclusive. Qed.
Print Assumptions C02acc_item_kind_exclusive.

Theorem C02acc_item_value_flags : forall it,
  count_true [item_is_str it; item_is_integer it; item_is_float it; item_is_bool it; item_is_datetime it;
              item_is_array it; item_is_inline_table it] = (if item_is_value it then 1 else 0).
Proof. exact item_value_flags. Qed.
Print Assumptions C02acc_item_value_flags.

(* reading a value through the five scalar downcasts alone recovers exactly the stored scalar (and nothing for a
   container): no downcast answers on a foreign kind, none converts *)
Theorem C02acc_read_scalar : forall v, read_scalar v = value_scalar v.
Proof. exact read_scalar_spec. Qed.
Print Assumptions C02acc_read_scalar.

Theorem C02acc_as_integer : forall v z, value_as_integer v = Some z <-> value_scalar v = Some (SInt z).
Proof. exact value_as_integer_spec. Qed.
Print Assumptions C02acc_as_integer.
Theorem C02acc_as_str : forall v s, value_as_str v = Some s <-> value_scalar v = Some (SString s).
Proof. exact value_as_str_spec. Qed.
Print Assumptions C02acc_as_str.
Theorem C02acc_as_float : forall v f, value_as_float v = Some f <-> value_scalar v = Some (SFloat f).
Proof. exact value_as_float_spec. Qed.
Print Assumptions C02acc_as_float.
Theorem C02acc_as_bool : forall v b, value_as_bool v = Some b <-> value_scalar v = Some (SBool b).
Proof. exact value_as_bool_spec. Qed.
Print Assumptions C02acc_as_bool.
Theorem C02acc_as_datetime : forall v d, value_as_datetime v = Some d <-> value_scalar v = Some (SDatetime d).
Proof. exact value_as_datetime_spec. Qed.
Print Assumptions C02acc_as_datetime.
Theorem C02acc_as_array : forall v vals,
  value_as_array v = Some vals <-> exists tr tc dc sp, v = VArray vals tr tc dc sp.
Proof. exact value_as_array_spec. Qed.
Print Assumptions C02acc_as_array.
Theorem C02acc_as_inline_table : forall v items,
  value_as_inline_table v = Some items <-> exists pr im dt dc sp, v = VInline items pr im dt dc sp.
Proof. exact value_as_inline_table_spec. Qed.
Print Assumptions C02acc_as_inline_table.

(* Item's duplicate downcasting API is the value's own on a value and answers None on everything else;
   table-like = table or inline table *)
Theorem C02acc_item_downcasts_value : forall v,
  item_as_str (IValue v) = value_as_str v /\ item_as_integer (IValue v) = value_as_integer v
  /\ item_as_float (IValue v) = value_as_float v /\ item_as_bool (IValue v) = value_as_bool v
  /\ item_as_datetime (IValue v) = value_as_datetime v /\ item_as_array (IValue v) = value_as_array v
  /\ item_as_inline_table (IValue v) = value_as_inline_table v /\ item_type_name (IValue v) = value_type_name v.
Proof. exact item_downcasts_value. Qed.
Print Assumptions C02acc_item_downcasts_value.
Theorem C02acc_item_downcasts_other : forall it,
  item_is_value it = false ->
  item_as_str it = None /\ item_as_integer it = None /\ item_as_float it = None /\ item_as_bool it = None
  /\ item_as_datetime it = None /\ item_as_array it = None /\ item_as_inline_table it = None.
Proof. exact item_downcasts_other. Qed.
Print Assumptions C02acc_item_downcasts_other.
Theorem C02acc_table_like : forall it, item_is_table_like it = orb (item_is_table it) (item_is_inline_table it).
Proof. exact item_table_like_spec. Qed.
Print Assumptions C02acc_table_like.

(* type_name and the is_x flags say the same thing *)
Theorem C02acc_value_type_name : forall v,
  (value_type_name v = str "string" <-> value_is_str v = true)
  /\ (value_type_name v = str "integer" <-> value_is_integer v = true)
  /\ (value_type_name v = str "float" <-> value_is_float v = true)
  /\ (value_type_name v = str "boolean" <-> value_is_bool v = true)
  /\ (value_type_name v = str "datetime" <-> value_is_datetime v = true)
  /\ (value_type_name v = str "array" <-> value_is_array v = true)
  /\ (value_type_name v = str "inline table" <-> value_is_inline_table v = true).
Proof. exact value_type_name_flags. Qed.
Print Assumptions C02acc_value_type_name.
Theorem C02acc_item_type_name : forall it,
  (item_type_name it = str "none" <-> item_is_none it = true)
  /\ (item_type_name it = str "table" <-> item_is_table it = true)
  /\ (item_type_name it = str "array of tables" <-> item_is_aot it = true).
Proof. exact item_type_name_flags. Qed.
Print Assumptions C02acc_item_type_name.

(* lookups hand out what iteration hands out: in a table with distinct keys every entry that is not a placeholder is found
   under its key (Table::get, Item::get(key)); a placeholder is never handed out; an inline table likewise;
   arrays and arrays of tables hand out the i-th stored element and None one past the end *)
Theorem C02acc_get_iter : forall t k it,
  NoDup (keys_of (t_items t)) -> In (k, it) (t_items t) -> item_is_none it = false ->
  index_str (k_key k) (ITable t) = Some it.
Proof. exact index_str_table. Qed.
Print Assumptions C02acc_get_iter.
Theorem C02acc_get_never_placeholder : forall k it x, index_str k it = Some x -> item_is_none x = false.
Proof. exact index_str_not_none. Qed.
Print Assumptions C02acc_get_never_placeholder.
Theorem C02acc_inline_get_iter : forall items k v,
  NoDup (keys_of items) -> In (k, IValue v) items -> inline_get items (k_key k) = Some v.
Proof. exact inline_get_iter. Qed.
Print Assumptions C02acc_inline_get_iter.
Theorem C02acc_array_get : forall vals i v, nth_error vals i = Some (IValue v) -> array_get vals i = Some v.
Proof. exact array_get_nth. Qed.
Print Assumptions C02acc_array_get.
Theorem C02acc_array_get_end : forall vals, array_get vals (array_len vals) = None.
Proof. exact array_get_end. Qed.
Print Assumptions C02acc_array_get_end.
Theorem C02acc_index_aot : forall ts sp i, index_usize i (IAot ts sp) = option_map ITable (nth_error ts i).
Proof. exact index_usize_aot. Qed.
Print Assumptions C02acc_index_aot.
Theorem C02acc_index_aot_end : forall ts sp, index_usize (List.length ts) (IAot ts sp) = None.
Proof. exact index_usize_aot_end. Qed.
Print Assumptions C02acc_index_aot_end.
Theorem C02acc_index_other : forall it i, item_is_aot it = false -> item_is_array it = false -> index_usize i it = None.
Proof. exact index_usize_other. Qed.
Print Assumptions C02acc_index_other.

(* len / is_empty of the table-like view: defined exactly on tables and inline tables, and on a table without placeholders
   (every parsed table: WF) it counts every entry *)
Theorem C02acc_tablelike_len_defined : forall it, is_some (tablelike_len it) = item_is_table_like it.
Proof. exact tablelike_len_iff. Qed.
Print Assumptions C02acc_tablelike_len_defined.
Theorem C02acc_table_len_counts_all : forall items,
  Forall (fun kv => item_is_none (snd kv) = false) items -> table_len items = List.length items.
Proof. exact table_len_no_placeholder. Qed.
Print Assumptions C02acc_table_len_counts_all.

(* ... and on every ACCEPTED document made editable: each entry the root's iteration shows is what doc["k"] and
   Item::get(k) hand out under its key, and it is not a placeholder (keys distinct, no Item::None: the WF backbone) *)
Theorem C02acc_parsed_root_lookup : forall s d r t k it,
  parse_document s = POk d -> tbl_despan s (doc_root d) = Some r -> raw_despan s (doc_trailing d) = Some t ->
  In (k, it) (t_items r) ->
  doc_index (ITable r) (k_key k) = Some it /\ index_str (k_key k) (ITable r) = Some it /\ item_is_none it = false.
Proof. exact parsed_root_lookup. Qed.
Print Assumptions C02acc_parsed_root_lookup.

(* non-vacuity: a concrete document, its root entries looked up *)
Example C02acc_example :
  match parse_document (str ("a = 1" ++ String (Ascii.ascii_of_nat 10) "b = [2, 'x']" ++ String (Ascii.ascii_of_nat 10) "")) with
  | POk d => match index_str (str "b") (ITable (doc_root d)) with
             | Some it => item_is_array it = true /\ option_map item_type_name (index_usize 1 it) = Some (str "string")
                          /\ index_usize 2 it = None /\ item_as_integer it = None
             | None => False
             end
  | _ => False
  end.
Proof. vm_compute. repeat split. Qed.
