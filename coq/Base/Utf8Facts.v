(* Base/Utf8Facts.v — well-formed UTF-8 texts one character at a time: an ASCII byte or one of the
   multi-byte rows of Table 3-7 can be dropped in front of any text; from that, induction over a
   well-formed text, dropping a well-formed prefix, and cutting a well-formed text before an ASCII
   byte.  "ASCII" is written (b2n b <=? 127) = true throughout. *)
From TV Require Import Base.Prelude Base.Utf8 Base.ListFacts.
Require Import Lia ZifyBool ZifyN.

Lemma utf8_cons_ascii b s : (b2n b <=? 127)%N = true -> utf8_valid_b (b :: s) = utf8_valid_b s.
Proof. intro H. cbn [utf8_valid_b]. rewrite H. reflexivity. Qed.

Lemma utf8_ascii s : forallb (fun b => b2n b <=? 127)%N s = true -> utf8_valid_b s = true.
Proof.
  induction s as [|b s IH]; [reflexivity|]. cbn [forallb]. intro H. apply andb_true_iff in H as [Hb Hs].
  rewrite utf8_cons_ascii by exact Hb. auto.
Qed.

Lemma utf8_app_ascii a s : forallb (fun b => b2n b <=? 127)%N a = true -> utf8_valid_b (a ++ s) = utf8_valid_b s.
Proof.
  induction a as [|b a IH]; [reflexivity|]. cbn [forallb app]. intro H. apply andb_true_iff in H as [Hb Ha].
  rewrite utf8_cons_ascii by exact Hb. auto.
Qed.

(* a multi-byte character: the rows of Unicode Table 3-7 beyond ASCII, as utf8_valid_b tests them *)
Definition second3 (b0 b1 : byte) : bool :=
  if (b2n b0 =? 224)%N then inr 160 191 b1 else if (b2n b0 =? 237)%N then inr 128 159 b1 else is_cont b1.
Definition second4 (b0 b1 : byte) : bool :=
  if (b2n b0 =? 240)%N then inr 144 191 b1 else if (b2n b0 =? 244)%N then inr 128 143 b1 else is_cont b1.

Inductive utf8_multi : bytes -> Prop :=
| um2 b0 b1 : inr 194 223 b0 = true -> is_cont b1 = true -> utf8_multi [b0; b1]
| um3 b0 b1 b2 : inr 224 239 b0 = true -> second3 b0 b1 = true -> is_cont b2 = true -> utf8_multi [b0; b1; b2]
| um4 b0 b1 b2 b3 : inr 240 244 b0 = true -> second4 b0 b1 = true -> is_cont b2 = true -> is_cont b3 = true ->
    utf8_multi [b0; b1; b2; b3].

Lemma utf8_seq2 b0 b1 s : inr 194 223 b0 = true -> is_cont b1 = true ->
  utf8_valid_b (b0 :: b1 :: s) = utf8_valid_b s.
Proof.
  intros H0 H1. cbn [utf8_valid_b]. rewrite H0, H1.
  replace (b2n b0 <=? 127)%N with false by (unfold inr in H0; lia). reflexivity.
Qed.

Lemma utf8_seq3 b0 b1 b2 s : inr 224 239 b0 = true -> second3 b0 b1 = true -> is_cont b2 = true ->
  utf8_valid_b (b0 :: b1 :: b2 :: s) = utf8_valid_b s.
Proof.
  intros H0 H1 H2. cbn [utf8_valid_b]. unfold second3 in H1. rewrite H0, H1, H2.
  replace (b2n b0 <=? 127)%N with false by (unfold inr in H0; lia).
  replace (inr 194 223 b0) with false by (unfold inr in *; lia). reflexivity.
Qed.

Lemma utf8_seq4 b0 b1 b2 b3 s : inr 240 244 b0 = true -> second4 b0 b1 = true ->
  is_cont b2 = true -> is_cont b3 = true ->
  utf8_valid_b (b0 :: b1 :: b2 :: b3 :: s) = utf8_valid_b s.
Proof.
  intros H0 H1 H2 H3. cbn [utf8_valid_b]. unfold second4 in H1. rewrite H0, H1, H2, H3.
  replace (b2n b0 <=? 127)%N with false by (unfold inr in H0; lia).
  replace (inr 194 223 b0) with false by (unfold inr in *; lia).
  replace (inr 224 239 b0) with false by (unfold inr in *; lia). reflexivity.
Qed.

Lemma utf8_multi_app ch s : utf8_multi ch -> utf8_valid_b (ch ++ s) = utf8_valid_b s.
Proof.
  intros [b0 b1 H0 H1|b0 b1 b2 H0 H1 H2|b0 b1 b2 b3 H0 H1 H2 H3]; cbn [app];
    [apply utf8_seq2|apply utf8_seq3|apply utf8_seq4]; assumption.
Qed.

Lemma second3_cont b0 b1 : second3 b0 b1 = true -> is_cont b1 = true.
Proof. unfold second3, is_cont, inr. destruct (b2n b0 =? 224)%N; [lia|]. destruct (b2n b0 =? 237)%N; lia. Qed.
Lemma second4_cont b0 b1 : second4 b0 b1 = true -> is_cont b1 = true.
Proof. unfold second4, is_cont, inr. destruct (b2n b0 =? 240)%N; [lia|]. destruct (b2n b0 =? 244)%N; lia. Qed.

Lemma utf8_multi_high ch : utf8_multi ch -> forallb (fun b => 128 <=? b2n b)%N ch = true.
Proof.
  intros [b0 b1 H0 H1|b0 b1 b2 H0 H1 H2|b0 b1 b2 b3 H0 H1 H2 H3]; cbn [forallb];
    try apply second3_cont in H1; try apply second4_cont in H1; unfold inr, is_cont in *; lia.
Qed.

(* the shape of a well-formed text: its first scalar, then a well-formed text *)
Lemma utf8_valid_cases s : utf8_valid_b s = true ->
  s = []
  \/ (exists b s', s = b :: s' /\ (b2n b <=? 127)%N = true /\ utf8_valid_b s' = true)
  \/ (exists b0 b1 s', s = b0 :: b1 :: s' /\ inr 194 223 b0 = true /\ is_cont b1 = true /\ utf8_valid_b s' = true)
  \/ (exists b0 b1 b2 s', s = b0 :: b1 :: b2 :: s' /\ inr 224 239 b0 = true /\ second3 b0 b1 = true
                          /\ is_cont b2 = true /\ utf8_valid_b s' = true)
  \/ (exists b0 b1 b2 b3 s', s = b0 :: b1 :: b2 :: b3 :: s' /\ inr 240 244 b0 = true /\ second4 b0 b1 = true
                             /\ is_cont b2 = true /\ is_cont b3 = true /\ utf8_valid_b s' = true).
Proof.
  destruct s as [|b0 s1]; [auto|]. cbn [utf8_valid_b]. intro H. right.
  destruct (b2n b0 <=? 127)%N eqn:E0; [left; exists b0, s1; auto|]. right.
  destruct (inr 194 223 b0) eqn:E1.
  { left. destruct s1 as [|b1 s2]; [discriminate|]. apply andb_true_iff in H as [H1 H2]. exists b0, b1, s2. auto. }
  right. destruct (inr 224 239 b0) eqn:E2.
  { left. destruct s1 as [|b1 [|b2 s3]]; try discriminate.
    apply andb_true_iff in H as [H H3]. apply andb_true_iff in H as [H1 H2].
    exists b0, b1, b2, s3. unfold second3. auto 6. }
  right. destruct (inr 240 244 b0) eqn:E3; [|discriminate].
  destruct s1 as [|b1 [|b2 [|b3 s4]]]; try discriminate.
  apply andb_true_iff in H as [H H4]. apply andb_true_iff in H as [H H3]. apply andb_true_iff in H as [H1 H2].
  exists b0, b1, b2, b3, s4. unfold second4. auto 8.
Qed.

(* induction over a well-formed text, one character at a time *)
Lemma utf8_valid_ind (P : bytes -> Prop) :
  P [] ->
  (forall b s, (b2n b <=? 127)%N = true -> utf8_valid_b s = true -> P s -> P (b :: s)) ->
  (forall ch s, utf8_multi ch -> utf8_valid_b s = true -> P s -> P (ch ++ s)) ->
  forall s, utf8_valid_b s = true -> P s.
Proof.
  intros Hnil Hascii Hmulti s. remember (length s) as k eqn:Hk. revert s Hk.
  induction k as [k IH] using lt_wf_ind. intros s -> V.
  destruct (utf8_valid_cases s V) as [-> | [(b & s' & -> & Hb & V') | [(b0 & b1 & s' & -> & H0 & H1 & V')
    | [(b0 & b1 & b2 & s' & -> & H0 & H1 & H2 & V') | (b0 & b1 & b2 & b3 & s' & -> & H0 & H1 & H2 & H3 & V')]]]].
  - exact Hnil.
  - apply Hascii; [exact Hb|exact V'|]. apply (IH (length s')); [simpl; auto with arith|reflexivity|exact V'].
  - apply (Hmulti [b0; b1]); [apply um2; assumption|exact V'|].
    apply (IH (length s')); [simpl; auto with arith|reflexivity|exact V'].
  - apply (Hmulti [b0; b1; b2]); [apply um3; assumption|exact V'|].
    apply (IH (length s')); [simpl; auto with arith|reflexivity|exact V'].
  - apply (Hmulti [b0; b1; b2; b3]); [apply um4; assumption|exact V'|].
    apply (IH (length s')); [simpl; auto with arith|reflexivity|exact V'].
Qed.

(* a well-formed prefix can be dropped *)
Lemma utf8_app a s : utf8_valid_b a = true -> utf8_valid_b (a ++ s) = utf8_valid_b s.
Proof.
  revert a. apply (utf8_valid_ind (fun a => utf8_valid_b (a ++ s) = utf8_valid_b s)).
  - reflexivity.
  - intros b a Hb _ IH. cbn [app]. rewrite utf8_cons_ascii by exact Hb. exact IH.
  - intros ch a Hch _ IH. rewrite <- app_assoc. rewrite utf8_multi_app by exact Hch. exact IH.
Qed.

(* a well-formed text cut before an ASCII byte: both sides are well-formed *)
Lemma utf8_split a b c : (b2n b <=? 127)%N = true -> utf8_valid_b (a ++ b :: c) = true ->
  utf8_valid_b a = true /\ utf8_valid_b c = true.
Proof.
  intros Hb V. remember (a ++ b :: c) as s eqn:E. revert s V a E.
  apply (utf8_valid_ind (fun s => forall a, s = a ++ b :: c -> utf8_valid_b a = true /\ utf8_valid_b c = true)).
  - intros a E. destruct a; discriminate.
  - intros b' s Hb' V' IH a E. destruct a as [|a0 a]; injection E as -> ->.
    + auto.
    + rewrite utf8_cons_ascii by exact Hb'. apply IH. reflexivity.
  - intros ch s Hch _ IH a E.
    assert (Nb : (128 <=? b2n b)%N = false) by lia.
    destruct (app_prefix_of _ ch a b c s (eq_sym E) (utf8_multi_high ch Hch) Nb) as (a' & -> & ->).
    rewrite utf8_multi_app by exact Hch. apply IH. reflexivity.
Qed.

(* the text after the cut starts with an ASCII byte, or is empty *)
Definition ascii_head (s : bytes) : Prop := match s with [] => True | b :: _ => (b2n b <=? 127)%N = true end.

Lemma utf8_cut a s : ascii_head s -> utf8_valid_b (a ++ s) = true ->
  utf8_valid_b a = true /\ utf8_valid_b s = true.
Proof.
  destruct s as [|b c]; intros Hh H.
  - rewrite app_nil_r in H. auto.
  - simpl in Hh. destruct (utf8_split a b c Hh H) as [Ha Hc]. split; [exact Ha|].
    rewrite utf8_cons_ascii by exact Hh. exact Hc.
Qed.

Lemma utf8_join a s : utf8_valid_b a = true -> utf8_valid_b s = true -> utf8_valid_b (a ++ s) = true.
Proof. intros Ha Hs. rewrite utf8_app by exact Ha. exact Hs. Qed.
