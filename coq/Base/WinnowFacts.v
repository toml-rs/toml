(* Base/WinnowFacts.v — the combinators of Base/Winnow.v one step at a time.
   Evaluation: from the result of the inner parser at i to the result of the combinator at i
   (`_ok` after Ok, `_bt` after a backtracking error, `_cut` after a committed one).
   Inversion (`_inv`): what an Ok result of the combinator says about the inner parser. *)
From TV Require Import Base.Prelude Base.Utf8 Base.Winnow Base.BytesFacts.

(* ---- evaluation after Ok ------------------------------------------------------------------------ *)
Lemma bind_ok {A B} (p : parser A) (f : A -> parser B) i a i' :
  p i = Ok a i' -> bind p f i = f a i'.
Proof. intro H. unfold bind. rewrite H. reflexivity. Qed.
Lemma pmap_ok {A B} (f : A -> B) (p : parser A) i a i' : p i = Ok a i' -> pmap f p i = Ok (f a) i'.
Proof. intro H. unfold pmap. rewrite H. reflexivity. Qed.
Lemma pvoid_ok {A} (p : parser A) i a i' : p i = Ok a i' -> pvoid p i = Ok tt i'.
Proof. intro H. unfold pvoid. rewrite (pmap_ok _ _ _ _ _ H). reflexivity. Qed.
Lemma pvalue_ok {A B} (b : B) (p : parser A) i a i' : p i = Ok a i' -> pvalue b p i = Ok b i'.
Proof. intro H. unfold pvalue. rewrite (pmap_ok _ _ _ _ _ H). reflexivity. Qed.
Lemma alt_ok {A} (p q : parser A) i a i' : p i = Ok a i' -> alt p q i = Ok a i'.
Proof. intro H. unfold alt. rewrite H. reflexivity. Qed.
Lemma opt_ok {A} (p : parser A) i a i' : p i = Ok a i' -> opt p i = Ok (Some a) i'.
Proof. intro H. unfold opt. rewrite H. reflexivity. Qed.
Lemma cut_err_ok {A} (p : parser A) i a i' : p i = Ok a i' -> cut_err p i = Ok a i'.
Proof. intro H. unfold cut_err. rewrite H. reflexivity. Qed.
Lemma context_ok {A} (p : parser A) i a i' : p i = Ok a i' -> context p i = Ok a i'.
Proof. intro H. unfold context. rewrite H. reflexivity. Qed.
Lemma peek_ok {A} (p : parser A) i a i' : p i = Ok a i' -> peek p i = Ok a i.
Proof. intro H. unfold peek. rewrite H. reflexivity. Qed.
Lemma verify_ok {A} (f : A -> bool) (p : parser A) i a i' : p i = Ok a i' -> f a = true -> verify f p i = Ok a i'.
Proof. intros H F. unfold verify. rewrite H, F. reflexivity. Qed.
Lemma verify_map_ok {A B} (f : A -> option B) (p : parser A) i a b i' :
  p i = Ok a i' -> f a = Some b -> verify_map f p i = Ok b i'.
Proof. intros H F. unfold verify_map. rewrite H, F. reflexivity. Qed.
Lemma try_map_ok {A B} (f : A -> tm B) (p : parser A) i a b i' :
  p i = Ok a i' -> f a = TmOk b -> try_map f p i = Ok b i'.
Proof. intros H F. unfold try_map. rewrite H, F. reflexivity. Qed.
Lemma and_then_ok {A B} (p : parser A) (f : A -> sub B) i a b i' :
  p i = Ok a i' -> f a = SubOk b -> and_then p f i = Ok b i'.
Proof. intros H F. unfold and_then. rewrite H, F. reflexivity. Qed.
Lemma unchecked_ok w (p : parser bytes) i b i' :
  p i = Ok b i' -> utf8_valid_b b = true -> unchecked_utf8 w p i = Ok b i'.
Proof. intros H F. unfold unchecked_utf8. rewrite H, F. reflexivity. Qed.
Lemma with_span_ok {A} (p : parser A) i a i' : p i = Ok a i' -> with_span p i = Ok (a, (pos i, pos i')) i'.
Proof. intro H. unfold with_span. rewrite H. reflexivity. Qed.
Lemma span_ok {A} (p : parser A) i a i' : p i = Ok a i' -> span_ p i = Ok (pos i, pos i') i'.
Proof. intro H. unfold span_. rewrite H. reflexivity. Qed.
Lemma eof_ok i : rest i = [] -> eof i = Ok tt i.
Proof. intro H. unfold eof. rewrite H. reflexivity. Qed.

Lemma bind_congr {A B} (p p' : parser A) (f : A -> parser B) i i' : p i = p' i' -> bind p f i = bind p' f i'.
Proof. intro H. unfold bind. rewrite H. reflexivity. Qed.

(* ---- evaluation after a backtracking error ---------------------------------------------------------- *)
Lemma bind_bt {A B} (p : parser A) (f : A -> parser B) i e i' : p i = Bt e i' -> bind p f i = Bt e i'.
Proof. intro H. unfold bind. rewrite H. reflexivity. Qed.
Lemma pmap_bt {A B} (f : A -> B) (p : parser A) i e i' : p i = Bt e i' -> pmap f p i = Bt e i'.
Proof. intro H. unfold pmap. rewrite H. reflexivity. Qed.
Lemma alt_bt {A} (p q : parser A) i e i' : p i = Bt e i' -> alt p q i = q i.
Proof. intro H. unfold alt. rewrite H. reflexivity. Qed.
Lemma opt_bt {A} (p : parser A) i e i' : p i = Bt e i' -> opt p i = Ok None i.
Proof. intro H. unfold opt. rewrite H. reflexivity. Qed.
Lemma peek_bt {A} (p : parser A) i e i' : p i = Bt e i' -> peek p i = Bt e i.
Proof. intro H. unfold peek. rewrite H. reflexivity. Qed.
Lemma cut_err_bt {A} (p : parser A) i e i' : p i = Bt e i' -> cut_err p i = Cut e i'.
Proof. intro H. unfold cut_err. rewrite H. reflexivity. Qed.
Lemma context_bt {A} (p : parser A) i e i' : p i = Bt e i' -> context p i = Bt (mkErr (e_cause e) true) i'.
Proof. intro H. unfold context. rewrite H. reflexivity. Qed.
Lemma try_map_bt {A B} (f : A -> tm B) (p : parser A) i e i' : p i = Bt e i' -> try_map f p i = Bt e i'.
Proof. intro H. unfold try_map. rewrite H. reflexivity. Qed.
Lemma and_then_bt {A B} (p : parser A) (f : A -> sub B) i e i' : p i = Bt e i' -> and_then p f i = Bt e i'.
Proof. intro H. unfold and_then. rewrite H. reflexivity. Qed.
Lemma taken_bt {A} (p : parser A) i e i' : p i = Bt e i' -> taken p i = Bt e i'.
Proof. intro H. unfold taken. rewrite H. reflexivity. Qed.
Lemma unchecked_bt w (p : parser bytes) i e i' : p i = Bt e i' -> unchecked_utf8 w p i = Bt e i'.
Proof. intro H. unfold unchecked_utf8. rewrite H. reflexivity. Qed.

(* ---- evaluation after a committed error -------------------------------------------------------------- *)
Lemma bind_cut {A B} (p : parser A) (f : A -> parser B) i e i' : p i = Cut e i' -> bind p f i = Cut e i'.
Proof. intro H. unfold bind. rewrite H. reflexivity. Qed.
Lemma try_map_cut {A B} (f : A -> tm B) (p : parser A) i e i' : p i = Cut e i' -> try_map f p i = Cut e i'.
Proof. intro H. unfold try_map. rewrite H. reflexivity. Qed.
Lemma cut_err_cut {A} (p : parser A) i e i' : p i = Cut e i' -> cut_err p i = Cut e i'.
Proof. intro H. unfold cut_err. rewrite H. reflexivity. Qed.

(* ---- the byte class of a primitive only matters up to extensional equality -------------------------- *)
Lemma take_while_ext m n f g i : (forall b, f b = g b) -> take_while_mn m n f i = take_while_mn m n g i.
Proof.
  intro H. unfold take_while_mn. destruct n as [n|].
  - assert (E : forall k s, take_upto f k s = take_upto g k s).
    { induction k as [|k IH]; intros [|b s]; simpl; try reflexivity. rewrite H, IH. reflexivity. }
    rewrite E. reflexivity.
  - rewrite (span_while_ext f g _ H). reflexivity.
Qed.

(* ---- take_upto: the longest prefix in the class, of at most n bytes ----------------------------------- *)
Lemma take_upto_prefix f n s : exists r, s = take_upto f n s ++ r.
Proof.
  revert s. induction n as [|n IH]; intros [|b s]; cbn; eauto.
  destruct (f b); cbn; eauto. destruct (IH s) as [r Hr]. exists r. congruence.
Qed.
Lemma take_upto_all f n s : forallb f (take_upto f n s) = true.
Proof.
  revert s. induction n as [|n IH]; intros [|b s]; cbn; auto.
  destruct (f b) eqn:F; cbn; auto. rewrite F, IH. reflexivity.
Qed.
Lemma take_upto_len f n s : length (take_upto f n s) <= n.
Proof.
  revert s. induction n as [|n IH]; intros [|b s]; cbn; try lia.
  destruct (f b); cbn; [|lia]. specialize (IH s). lia.
Qed.
Lemma take_upto_exact f n : forall h r, length h = n -> forallb f h = true -> take_upto f n (h ++ r) = h.
Proof.
  induction n as [|n IH]; intros [|b h] r Hl Hh; try discriminate; [reflexivity|].
  cbn [forallb] in Hh. apply andb_true_iff in Hh as [Hb Hh]. cbn [app take_upto]. rewrite Hb.
  rewrite IH; [reflexivity|simpl in Hl; lia|exact Hh].
Qed.

(* ---- inversion: what an Ok result tells ----------------------------------------------------------- *)
Lemma bind_inv {A B} (p : parser A) (f : A -> parser B) i b i2 :
  bind p f i = Ok b i2 -> exists a i1, p i = Ok a i1 /\ f a i1 = Ok b i2.
Proof. unfold bind. destruct (p i) as [a i1| | |]; try discriminate. intro H. eauto. Qed.

Lemma ret_inv {A} (a b : A) i i' : ret a i = Ok b i' -> b = a /\ i' = i.
Proof. unfold ret. intro H. injection H; auto. Qed.

Lemma pmap_inv {A B} (f : A -> B) (p : parser A) i b i' :
  pmap f p i = Ok b i' -> exists a, p i = Ok a i' /\ b = f a.
Proof. unfold pmap. destruct (p i) as [a i1| | |]; try discriminate. intro H. injection H as <- <-. eauto. Qed.

Lemma pvoid_inv {A} (p : parser A) i u i' : pvoid p i = Ok u i' -> exists a, p i = Ok a i'.
Proof. unfold pvoid. intro H. apply pmap_inv in H as (a & H & _). eauto. Qed.

Lemma pvalue_inv {A B} (b : B) (p : parser A) i x i' : pvalue b p i = Ok x i' -> x = b /\ exists a, p i = Ok a i'.
Proof. unfold pvalue. intro H. apply pmap_inv in H as (a & H & E). eauto. Qed.

Lemma cut_err_inv {A} (p : parser A) i a i' : cut_err p i = Ok a i' -> p i = Ok a i'.
Proof. unfold cut_err. destruct (p i); try discriminate; auto. Qed.

Lemma context_inv {A} (p : parser A) i a i' : context p i = Ok a i' -> p i = Ok a i'.
Proof. unfold context. destruct (p i); try discriminate; auto. Qed.

Lemma peek_inv {A} (p : parser A) i a i' : peek p i = Ok a i' -> i' = i /\ exists j, p i = Ok a j.
Proof. unfold peek. destruct (p i) as [a1 i1| | |]; try discriminate. intro H. injection H as <- <-. eauto. Qed.

Lemma verify_inv {A} (f : A -> bool) (p : parser A) i a i' :
  verify f p i = Ok a i' -> p i = Ok a i' /\ f a = true.
Proof.
  unfold verify. destruct (p i) as [a1 i1| | |]; try discriminate.
  destruct (f a1) eqn:F; [|discriminate]. intro H. injection H as <- <-. auto.
Qed.

Lemma verify_map_inv {A B} (f : A -> option B) (p : parser A) i b i' :
  verify_map f p i = Ok b i' -> exists a, p i = Ok a i' /\ f a = Some b.
Proof.
  unfold verify_map. destruct (p i) as [a1 i1| | |]; try discriminate.
  destruct (f a1) eqn:F; [|discriminate]. intro H. injection H as <- <-. eauto.
Qed.

Lemma try_map_inv {A B} (f : A -> tm B) (p : parser A) i b i' :
  try_map f p i = Ok b i' -> exists a, p i = Ok a i' /\ f a = TmOk b.
Proof.
  unfold try_map. destruct (p i) as [a1 i1| | |]; try discriminate.
  destruct (f a1) eqn:F; try discriminate. intro H. injection H as <- <-. eauto.
Qed.

Lemma and_then_inv {A B} (p : parser A) (f : A -> sub B) i b i' :
  and_then p f i = Ok b i' -> exists a, p i = Ok a i' /\ f a = SubOk b.
Proof.
  unfold and_then. destruct (p i) as [a1 i1| | |]; try discriminate.
  destruct (f a1) eqn:F; try discriminate. intro H. injection H as <- <-. eauto.
Qed.

Lemma unchecked_inv w (p : parser bytes) i b i' :
  unchecked_utf8 w p i = Ok b i' -> p i = Ok b i' /\ utf8_valid_b b = true.
Proof.
  unfold unchecked_utf8. destruct (p i) as [a1 i1| | |]; try discriminate.
  destruct (utf8_valid_b a1) eqn:F; [|discriminate]. intro H. injection H as <- <-. auto.
Qed.

Lemma taken_inv {A} (p : parser A) i s i' :
  taken p i = Ok s i' -> exists a, p i = Ok a i' /\ s = firstn (N.to_nat (pos i' - pos i)) (rest i).
Proof.
  unfold taken. destruct (p i) as [a1 i1| | |]; try discriminate. intro H. injection H as <- <-. eauto.
Qed.

Lemma span_inv {A} (p : parser A) i sp i' :
  span_ p i = Ok sp i' -> exists a, p i = Ok a i' /\ sp = (pos i, pos i').
Proof.
  unfold span_. destruct (p i) as [a1 i1| | |]; try discriminate. intro H. injection H as <- <-. eauto.
Qed.

Lemma with_span_inv {A} (p : parser A) i x i' :
  with_span p i = Ok x i' -> exists a, p i = Ok a i' /\ x = (a, (pos i, pos i')).
Proof.
  unfold with_span. destruct (p i) as [a1 i1| | |]; try discriminate. intro H. injection H as <- <-. eauto.
Qed.

Lemma eof_inv i u i' : eof i = Ok u i' -> i' = i /\ rest i = [].
Proof. unfold eof. destruct (rest i); [|discriminate]. intro H. injection H as <- <-. auto. Qed.
