(* Base/ListFacts.v — facts about the standard list functions that the library does not have:
   firstn/skipn at the length of a prefix, forallb / Forall / Forall2 / NoDup, how flat_map
   commutes with map, filter and itself, and the maximum of a list written as a fold. *)
From Coq Require Import List Bool Arith Lia.
Import ListNotations.

(* ---- firstn, skipn ---------------------------------------------------------------------------- *)
Lemma skipn_app_len {A} (a r : list A) : skipn (length a) (a ++ r) = r.
Proof. induction a; simpl; auto. Qed.
Lemma firstn_app_len {A} (a r : list A) : firstn (length a) (a ++ r) = a.
Proof. induction a; simpl; congruence. Qed.

Lemma skipn_add {A} (m n : nat) (l : list A) : skipn n (skipn m l) = skipn (m + n) l.
Proof.
  revert l. induction m as [|m IH]; intro l; [reflexivity|].
  destruct l as [|x l]; [destruct n; reflexivity|]. cbn [Nat.add skipn]. apply IH.
Qed.

(* t ++ s read as a ++ b :: c, where b differs from every element of t: then t lies within a *)
Lemma app_prefix_of {A} (P : A -> bool) t : forall a b c s,
  a ++ b :: c = t ++ s -> forallb P t = true -> P b = false -> exists a', a = t ++ a' /\ s = a' ++ b :: c.
Proof.
  induction t as [|x t IH]; intros a b c s E Ht Hb.
  - exists a. auto.
  - cbn [forallb] in Ht. apply andb_true_iff in Ht as [Hx Ht]. destruct a as [|y a]; injection E as -> E.
    + congruence.
    + destruct (IH a b c s E Ht Hb) as (a' & -> & ->). exists a'. auto.
Qed.

(* ---- forallb ------------------------------------------------------------------------------------ *)
Lemma forallb_impl {A} (f g : A -> bool) l :
  (forall x, f x = true -> g x = true) -> forallb f l = true -> forallb g l = true.
Proof. intro H. rewrite !forallb_forall. auto. Qed.

Lemma forallb_ext_eq {A} (f g : A -> bool) l : (forall x, f x = g x) -> forallb f l = forallb g l.
Proof. intro H. induction l; simpl; [reflexivity|]. rewrite H, IHl. reflexivity. Qed.

Lemma forallb_Forall {A} (f : A -> bool) l : forallb f l = true <-> Forall (fun x => f x = true) l.
Proof. rewrite forallb_forall, Forall_forall. reflexivity. Qed.

Lemma forallb_firstn {A} (f : A -> bool) n l : forallb f l = true -> forallb f (firstn n l) = true.
Proof.
  revert l; induction n as [|n IH]; intros [|x l]; cbn [firstn forallb]; auto.
  intro H. apply andb_true_iff in H as [H1 H2]. rewrite H1, (IH _ H2). reflexivity.
Qed.

(* ---- Forall, Forall2, NoDup --------------------------------------------------------------------- *)
Lemma Forall_snoc {A} (P : A -> Prop) l x : Forall P l -> P x -> Forall P (l ++ [x]).
Proof. intros Hl Hx. apply Forall_app. split; [exact Hl|constructor; [exact Hx|constructor]]. Qed.

Lemma Forall2_impl {A B} (R R' : A -> B -> Prop) l1 l2 :
  (forall a b, R a b -> R' a b) -> Forall2 R l1 l2 -> Forall2 R' l1 l2.
Proof. intros H F. induction F; constructor; auto. Qed.

Lemma Forall2_map_eq {A B C} (f : A -> C) (g : B -> C) l l' :
  Forall2 (fun a b => f a = g b) l l' -> map f l = map g l'.
Proof. induction 1 as [|a b l l' H _ IH]; [reflexivity|]. cbn [map]. rewrite H, IH. reflexivity. Qed.

Lemma NoDup_snoc {A} (l : list A) x : NoDup l -> ~ In x l -> NoDup (l ++ [x]).
Proof.
  induction l as [|y l IH]; intros Hn Hx; [constructor; [intros []|constructor]|].
  inversion Hn as [|? ? Hy Hl]; subst. cbn [app]. constructor.
  - intro Hin. apply in_app_or in Hin as [Hin | [-> | []]]; [exact (Hy Hin)|]. apply Hx. left. reflexivity.
  - apply IH; [exact Hl|]. intro Hin. apply Hx. right. exact Hin.
Qed.

(* ---- flat_map ------------------------------------------------------------------------------------- *)
Lemma map_flat_map {A B C} (f : B -> C) (g : A -> list B) l :
  map f (flat_map g l) = flat_map (fun x => map f (g x)) l.
Proof. induction l as [|x l IH]; [reflexivity|]. cbn [flat_map]. rewrite map_app, IH. reflexivity. Qed.

Lemma filter_flat_map {A B} (p : B -> bool) (g : A -> list B) l :
  filter p (flat_map g l) = flat_map (fun x => filter p (g x)) l.
Proof. induction l as [|x l IH]; [reflexivity|]. cbn [flat_map]. rewrite filter_app, IH. reflexivity. Qed.

Lemma flat_map_flat_map {A B C} (f : B -> list C) (g : A -> list B) l :
  flat_map f (flat_map g l) = flat_map (fun x => flat_map f (g x)) l.
Proof. induction l as [|x l IH]; [reflexivity|]. cbn [flat_map]. rewrite flat_map_app, IH. reflexivity. Qed.

Lemma flat_map_map {A B C} (f : B -> list C) (g : A -> B) l :
  flat_map f (map g l) = flat_map (fun x => f (g x)) l.
Proof. induction l as [|x l IH]; [reflexivity|]. cbn [map flat_map]. rewrite IH. reflexivity. Qed.

Lemma flat_map_ext_in {A B} (f g : A -> list B) l :
  (forall x, In x l -> f x = g x) -> flat_map f l = flat_map g l.
Proof.
  induction l as [|x l IH]; intro H; [reflexivity|]. cbn [flat_map].
  rewrite (H x (or_introl eq_refl)), IH; [reflexivity|]. intros y Hy. apply H. right. exact Hy.
Qed.

(* ---- the largest f x over a list ------------------------------------------------------------------- *)
Lemma fold_max_bound {A} (f : A -> nat) l B :
  (forall x, In x l -> f x <= B) -> fold_right (fun x acc => Nat.max (f x) acc) 0 l <= B.
Proof.
  induction l as [|x l IH]; intro H; [cbn; lia|]. cbn [fold_right].
  pose proof (H x (or_introl eq_refl)). specialize (IH (fun y Hy => H y (or_intror Hy))). lia.
Qed.

Lemma fold_max_ge {A} (f : A -> nat) l a :
  In a l -> f a <= fold_right (fun y acc => Nat.max (f y) acc) 0 l.
Proof.
  induction l as [|y l IH]; [contradiction|]. cbn [fold_right]. intros [<- | H]; [lia|]. specialize (IH H). lia.
Qed.
