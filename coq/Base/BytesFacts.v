(* Base/BytesFacts.v — bytes as numbers (b2n is injective and below 256, so byte_eqb is a
   comparison of numbers), equality of byte strings, ASCII digits and the decimal value of a
   digit string, span_while up to the class. *)
From TV Require Import Base.Prelude.

(* ---- bytes as numbers --------------------------------------------------------------------- *)
Lemma b2n_lt b : (b2n b < 256)%N.
Proof. unfold b2n. pose proof (Byte.to_N_bounded b). lia. Qed.

Lemma b2n_inj a b : b2n a = b2n b -> a = b.
Proof.
  unfold b2n. intro H. pose proof (Byte.of_to_N a) as Ha. pose proof (Byte.of_to_N b) as Hb.
  rewrite H in Ha. congruence.
Qed.

Lemma n2b_b2n b : n2b (b2n b) = b.
Proof. unfold n2b, b2n. rewrite Byte.of_to_N. reflexivity. Qed.

Lemma b2n_n2b n : (n < 256)%N -> b2n (n2b n) = n.
Proof.
  intro H. unfold n2b, b2n. destruct (Byte.of_N n) eqn:E.
  - apply Byte.to_of_N in E. exact E.
  - apply Byte.of_N_None_iff in E. lia.
Qed.

Lemma byte_eqb_neq a b : byte_eqb a b = false <-> a <> b.
Proof. rewrite <- byte_eqb_eq. destruct (byte_eqb a b); split; congruence. Qed.

Lemma byte_eqb_n a b : byte_eqb a b = (b2n a =? b2n b)%N.
Proof.
  destruct (byte_eqb a b) eqn:E; symmetry.
  - apply byte_eqb_eq in E. subst. apply N.eqb_refl.
  - apply N.eqb_neq. intro H. apply b2n_inj in H. apply byte_eqb_neq in E. contradiction.
Qed.

Lemma byte_eqb_sym a b : byte_eqb a b = byte_eqb b a.
Proof. rewrite !byte_eqb_n. apply N.eqb_sym. Qed.

(* ---- byte strings ----------------------------------------------------------------------------- *)
Lemma bytes_eqb_neq a b : bytes_eqb a b = false <-> a <> b.
Proof. rewrite <- bytes_eqb_eq. destruct (bytes_eqb a b); split; congruence. Qed.

Lemma bytes_eqb_sym a b : bytes_eqb a b = bytes_eqb b a.
Proof.
  destruct (bytes_eqb a b) eqn:E; symmetry.
  - apply bytes_eqb_eq in E. subst. apply bytes_eqb_refl.
  - apply bytes_eqb_neq. apply bytes_eqb_neq in E. congruence.
Qed.

Lemma span_while_ext f g s : (forall b, f b = g b) -> span_while f s = span_while g s.
Proof. intro H. induction s as [|b s IH]; simpl; [reflexivity|]. rewrite H, IH. reflexivity. Qed.

Lemma span_while_all_true f s : forallb f s = true -> span_while f s = (s, []).
Proof.
  induction s as [|b s IH]; [reflexivity|]. cbn [forallb span_while]. intro H.
  apply andb_true_iff in H as [Hb Hs]. rewrite Hb, (IH Hs). reflexivity.
Qed.

Lemma span_while_app_stop f a b r : forallb f a = true -> f b = false -> span_while f (a ++ b :: r) = (a, b :: r).
Proof.
  intros Ha Hb. induction a as [|x a IH]; cbn [app span_while].
  - rewrite Hb. reflexivity.
  - cbn [forallb] in Ha. apply andb_true_iff in Ha as [Hx Ha]. rewrite Hx, (IH Ha). reflexivity.
Qed.

(* ---- digits --------------------------------------------------------------------------------------- *)
Lemma is_digit_iff b : is_digit b = true <-> (48 <= b2n b <= 57)%N.
Proof. unfold is_digit. rewrite andb_true_iff, !N.leb_le. reflexivity. Qed.

Lemma is_digit_val b : is_digit b = true -> (digit_val b <= 9)%N.
Proof. intro H. apply is_digit_iff in H. unfold digit_val. lia. Qed.

Lemma digit_ascii b : is_digit b = true -> (b2n b <=? 127)%N = true.
Proof. intro H. apply is_digit_iff in H. apply N.leb_le. lia. Qed.

Lemma digit_byte_val d : (d < 10)%N -> b2n (digit_byte d) = (48 + d)%N.
Proof. intro H. unfold digit_byte. apply b2n_n2b. lia. Qed.

Lemma digit_byte_is_digit d : (d < 10)%N -> is_digit (digit_byte d) = true.
Proof. intro H. apply is_digit_iff. rewrite (digit_byte_val _ H). lia. Qed.

Lemma digit_byte_digit_val d : (d < 10)%N -> digit_val (digit_byte d) = d.
Proof. intro H. unfold digit_val. rewrite (digit_byte_val _ H). lia. Qed.

Lemma dec_value_acc_app acc a b :
  dec_value_acc acc (a ++ b) = dec_value_acc (dec_value_acc acc a) b.
Proof. revert acc; induction a as [|x a IH]; intro acc; [reflexivity | apply IH]. Qed.

Lemma dec_value_snoc a b : dec_value (a ++ [b]) = (dec_value a * 10 + digit_val b)%N.
Proof. unfold dec_value. rewrite dec_value_acc_app. reflexivity. Qed.
