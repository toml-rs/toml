(* Proofs/WFParseTop.v — parsed documents are well-formed, top: every accepted document, despanned, satisfies all
   clauses of Spec/WF.v `WF` except `order_ok` (which is false for documents whose sections are not in the order of
   the tree walk): `parse_WF_total`, `parse_WF`.  Assembled from
     Proofs/WFParseDoc.v    parsed_slots: decor, reprs, keys, values, limits (through the parser);
     C09's simulation       (Proofs/DefsEquivSim.v Inv, replayed as in Proofs/GrammarDoc.v): keys distinct, no
                            Item::None, arrays of tables non-empty with undotted elements;
     Proofs/WFParseFlags.v  the tree is built by the definition rules, hence super-tables are not empty and tables
                            made of dotted keys hold lines. *)
From TV Require Import Base.Prelude Base.Winnow Gen.Consts Spec.Defs Spec.Syntax Spec.WF.
From TV Require Import Model.Tree Model.Document Model.Encode.
From TV Require Import Proofs.DefsEquivBase Proofs.DefsEquivSpec Proofs.DefsEquivSim Proofs.DefsEquivMain.
From TV Require Import Proofs.LexEquivBase Proofs.GrammarBase Proofs.GrammarDoc.
From TV Require Import Proofs.PrintBackBase Proofs.PrintBackDespan.
From TV Require Import Proofs.WFTree
                       Proofs.WFParseBase Proofs.WFParseState Proofs.WFParseDoc Proofs.WFParseFlags.
From TV Require Import Proofs.DocumentOps.
Require Import Lia NArith.

(* ---- structure, from C09's simulation --------------------------------------------------------------------------------- *)
Theorem parsed_struct s d : parse_document s = POk d ->
  mok_tbl (doc_root d) = true /\ swf_tree (abs_tbl (doc_root d)) = true.
Proof.
  intro H. destruct (parse_document_inv s d H) as (o & i1 & stw & i2 & stl & i3 & st' & Eb & Ew & El & Rend & Ef & ->). cbn [doc_root].
  apply parse_ws_inv in Ew as (w0 & sp & Hw0 & Sw & _ & ->).
  assert (D2 : depth i2 = 0).
  { rewrite (splits_depth _ _ _ Sw). apply opt_inv in Eb as [(x & _ & Eb) | (_ & -> & _)]; [|reflexivity].
    apply lit_inv in Eb as [_ Sb]. rewrite (splits_depth _ _ _ Sb). reflexivity. }
  destruct (doc_loop_sound _ _ _ _ _ sstate0 El D2 (Inv_on_ws _ _ sp Inv_init)) as (t & l & [T cp] & St & Hdl & HI & _).
  destruct (finalize_sim stl T cp HI) as (root' & Ef' & Ha & Hm). rewrite Ef' in Ef. injection Ef as <-. cbn [finalized st_root].
  split; [exact Hm|]. rewrite Ha. destruct HI as (_ & _ & _ & _ & _ & HsT & _). exact HsT.
Qed.

(* ---- flags, from the specification side -------------------------------------------------------------------------------- *)
Definition fentry_of (flagF : tbl -> Prop) (kv : key * item) : Prop :=
  match snd kv with
  | ITable sub => flagF sub /\ (if t_dotted sub then has_line sub = true else shown sub = true \/ prints_header sub = true)
  | IAot ts _ => ts <> [] /\ all_P flagF ts
  | _ => True
  end.
Fixpoint flagF (t : tbl) {struct t} : Prop := match t with Tbl items _ _ _ _ _ => all_P (fentry_of flagF) items end.
Definition fentry : key * item -> Prop := fentry_of flagF.
Lemma flagF_eq t : flagF t <-> all_P fentry (t_items t).
Proof. destruct t; reflexivity. Qed.

(* a dotted table is implicit, everywhere *)
Definition dentry_of (di_all : tbl -> Prop) (kv : key * item) : Prop :=
  match snd kv with ITable sub => di_all sub | IAot ts _ => all_P di_all ts | _ => True end.
Fixpoint di_all (t : tbl) {struct t} : Prop :=
  match t with Tbl items _ im dt _ _ => (dt = true -> im = true) /\ all_P (dentry_of di_all) items end.
Definition dentry : key * item -> Prop := dentry_of di_all.
Lemma di_all_eq t : di_all t <-> (t_dotted t = true -> t_implicit t = true) /\ all_P dentry (t_items t).
Proof. destruct t; reflexivity. Qed.

Lemma twl_di s : forall t top h n, twl s top h n t -> di_all t.
Proof.
  induction t as [items d im dt p sp IH] using tbl_sub_ind. intros top h n H. apply twl_eq in H as (_ & Hdi & Hall). apply di_all_eq. split; [exact Hdi|].
  cbn [t_items] in *. induction items as [|[k it] items IHi]; [exact I|]. inversion IH as [|? ? H1 H2]; subst. destruct Hall as [[_ Hent] Hall].
  split; [|apply IHi; assumption]. unfold dentry, dentry_of. cbn [snd] in *. destruct it as [|v|sub|ts asp]; auto.
  - eapply H1, (proj2 Hent).
  - destruct Hent as [_ Hts]. clear -H1 Hts. induction ts as [|e ts IHt]; [exact I|]. inversion H1; subst. destruct Hts as [He Hts]. split; [eauto|auto].
Qed.

Lemma kind_of_dotted sub : (t_dotted sub = true -> t_implicit sub = true) ->
  kind_of sub = if t_dotted sub then KDotted else if t_implicit sub then KSuper else KHeader.
Proof. unfold kind_of. destruct (t_dotted sub), (t_implicit sub); auto. intro H. discriminate (H eq_refl). Qed.

Lemma smap_abs_tbl t : smap absv (abs_tbl t) = map (fun kv => (k_key (fst kv), nmap absv (abs_item (snd kv)))) (t_items t).
Proof. rewrite abs_tbl_eq. unfold smap, abs_items. rewrite map_map. reflexivity. Qed.

Lemma has_line_abs : forall t, di_all t -> t_line dval (smap absv (abs_tbl t)) = has_line t.
Proof.
  induction t as [items d im dt p sp IH] using tbl_sub_ind. intro Hd. apply di_all_eq in Hd as [_ Hall]. rewrite smap_abs_tbl, has_line_eq. cbn [t_items] in *.
  unfold t_line. induction items as [|[k it] items IHi]; [reflexivity|]. inversion IH as [|? ? H1 H2]; subst. destruct Hall as [Hent Hall].
  cbn [map existsb fst snd]. rewrite (IHi H2 Hall). f_equal. unfold dentry, dentry_of in Hent. cbn [snd] in *. destruct it as [|v|sub|ts asp]; try reflexivity.
  cbn [abs_item]. rewrite nmap_tab. pose proof Hent as Hent'. apply di_all_eq in Hent' as [Hdi _]. rewrite (kind_of_dotted sub Hdi).
  destruct (t_dotted sub); [rewrite lineish_dotted; apply H1, Hent|]. destruct (t_implicit sub); reflexivity.
Qed.

Lemma mok_items_in m k it : mok_items m = true -> In (k, it) m -> mok_item it = true.
Proof. unfold mok_items. rewrite forallb_forall. intros H Hin. exact (H (k, it) Hin). Qed.

(* a table with an entry prints something *)
Lemma nonempty_visible t : flagF t -> mok_tbl t = true -> t_items t <> [] -> has_line t = true \/ prints_header t = true.
Proof.
  intros Hf Hm Hne. apply flagF_eq in Hf. rewrite mok_tbl_eq in Hm. rewrite has_line_eq, prints_header_eq.
  destruct (t_items t) as [|[k it] items]; [congruence|]. destruct Hf as [Hent _]. unfold mok_items in Hm. cbn [forallb snd] in Hm. apply andb_true_iff in Hm as [Hm _].
  unfold fentry, fentry_of in Hent. cbn [existsb snd] in *. destruct it as [|v|sub|ts asp].
  - discriminate.
  - left. reflexivity.
  - destruct Hent as [_ Hc]. destruct (t_dotted sub); [left; rewrite Hc; reflexivity|]. right. cbn [negb andb]. destruct Hc as [-> | ->]; [reflexivity|apply orb_true_iff; left; apply orb_true_r].
  - right. destruct Hent as [Hn _]. destruct ts; [congruence|reflexivity].
Qed.

Lemma gtree_map_inv (items : kvs) :
  gtree dval (map (fun kv => (k_key (fst kv), nmap absv (abs_item (snd kv)))) items) ->
  Forall (fun kv => gnode dval (nmap absv (abs_item (snd kv)))) items.
Proof. unfold gtree. rewrite Forall_map. exact (fun H => H). Qed.

Theorem flags_of_gtree : forall t, di_all t -> mok_tbl t = true -> gtree dval (smap absv (abs_tbl t)) -> flagF t.
Proof.
  induction t as [items d im dt p sp IH] using tbl_sub_ind. intros Hd Hm Hg. apply di_all_eq in Hd as [_ Hd]. rewrite mok_tbl_eq in Hm. rewrite smap_abs_tbl in Hg.
  apply gtree_map_inv in Hg. apply flagF_eq. cbn [t_items] in *.
  induction items as [|[k it] items IHi]; [exact I|]. inversion IH as [|? ? H1 H2]; subst. inversion Hg as [|? ? G1 G2]; subst. destruct Hd as [Hent Hd].
  unfold mok_items in Hm. cbn [forallb snd] in Hm. apply andb_true_iff in Hm as [Hm1 Hm2].
  split; [|apply IHi; assumption]. unfold fentry, fentry_of, dentry, dentry_of in *. cbn [snd] in *. destruct it as [|v|sub|ts asp]; try exact I.
  - cbn [abs_item mok_item] in *. rewrite nmap_tab in G1. apply gnode_tab in G1 as [Gk Gt].
    assert (Hfs : flagF sub) by (apply H1; assumption). split; [exact Hfs|].
    pose proof Hent as Hent'. apply di_all_eq in Hent' as [Hdi _]. rewrite (kind_of_dotted sub Hdi) in Gk.
    destruct (t_dotted sub).
    + rewrite <- (has_line_abs sub Hent). exact Gk.
    + unfold shown. destruct (t_implicit sub); [|left; reflexivity]. cbn [andb].
      assert (Hne : t_items sub <> []).
      { intro E. apply Gk. rewrite smap_abs_tbl, E. reflexivity. }
      destruct (nonempty_visible sub Hfs Hm1 Hne) as [Hl|Hp]; [left; rewrite Hl; reflexivity|right; exact Hp].
  - rewrite abs_item_aot, nmap_aot in G1. apply gnode_aot in G1 as [Gn Ges]. rewrite mok_item_aot in Hm1.
    split; [destruct ts; [exfalso; apply Gn; reflexivity|discriminate]|].
    clear -H1 Hent Hm1 Ges. induction ts as [|e ts IHt]; [exact I|]. inversion H1; subst. cbn [map] in Ges. inversion Ges; subst. destruct Hent as [He Hent].
    cbn [forallb] in Hm1. apply andb_true_iff in Hm1 as [Hme Hm1]. unfold mok_elem in Hme. apply andb_true_iff in Hme as [_ Hme].
    split; [apply H2; assumption|apply IHt; assumption].
Qed.

(* ---- despanning does not touch the flags ----------------------------------------------------------------------------- *)
Section T.
  Variable s : bytes.
  Lemma t_flags_t t : t_dotted (ttbl s t) = t_dotted t /\ t_implicit (ttbl s t) = t_implicit t.
  Proof. destruct t. rewrite ttbl_eq. auto. Qed.
  Lemma t_items_t t : t_items (ttbl s t) = map (tkv s) (t_items t).
  Proof. destruct t. rewrite ttbl_eq. reflexivity. Qed.
  Lemma has_line_t : forall t, has_line (ttbl s t) = has_line t.
  Proof.
    induction t as [items d im dt p sp IH] using tbl_sub_ind. rewrite !has_line_eq, t_items_t. cbn [t_items].
    induction items as [|[k it] items IHi]; [reflexivity|]. inversion IH as [|? ? H1 H2]; subst. cbn [map existsb tkv fst snd]. rewrite (IHi H2). f_equal.
    destruct it as [|v|sub|ts asp]; try reflexivity. change (titem s (ITable sub)) with (ITable (ttbl s sub)). cbv beta iota.
    rewrite (proj1 (t_flags_t sub)). cbn [snd] in H1. rewrite H1. reflexivity.
  Qed.
  Lemma shown_t t : shown (ttbl s t) = shown t.
  Proof. unfold shown. rewrite has_line_t, (proj2 (t_flags_t t)). reflexivity. Qed.
  Lemma prints_header_t : forall t, prints_header (ttbl s t) = prints_header t.
  Proof.
    induction t as [items d im dt p sp IH] using tbl_sub_ind. rewrite !prints_header_eq, t_items_t. cbn [t_items].
    induction items as [|[k it] items IHi]; [reflexivity|]. inversion IH as [|? ? H1 H2]; subst. cbn [map existsb tkv fst snd]. rewrite (IHi H2). f_equal.
    destruct it as [|v|sub|ts asp]; try reflexivity.
    - change (titem s (ITable sub)) with (ITable (ttbl s sub)). cbv beta iota. rewrite (proj1 (t_flags_t sub)), shown_t. cbn [snd] in H1. rewrite H1. reflexivity.
    - rewrite titem_aot. destruct ts; reflexivity.
  Qed.

  Lemma snodup_nodup {V} (t : stree V) : snodup t = true -> NoDup (map fst t).
  Proof.
    induction t as [|[k n] t IH]; [constructor|]. cbn [snodup map fst]. destruct (sget t k) eqn:E; [discriminate|]. intro H.
    constructor; [apply sget_none_notin, E|apply IH, H].
  Qed.

  (* ---- all together ---------------------------------------------------------------------------------------------------- *)
  Lemma assemble : forall t top h n,
    twl s top h n t -> swf_tree (abs_tbl t) = true -> mok_tbl t = true -> flagF t ->
    tbl_wf top (ttbl s t) /\ tbl_lim h n (ttbl s t).
  Proof.
    induction t as [items d im dt p sp IH] using tbl_sub_ind. intros top h n Ht Hs Hm Hf.
    apply twl_eq in Ht as (Hd & _ & Hall). apply flagF_eq in Hf. rewrite mok_tbl_eq in Hm. rewrite abs_tbl_eq in Hs. cbn [t_items t_decor] in *.
    unfold swf_tree in Hs. apply andb_true_iff in Hs as [Hsn Hnd].
    rewrite ttbl_eq. cbn [tbl_wf tbl_lim].
    assert (Hkeys : NoDup (kkeys (map (tkv s) items))).
    { rewrite kkeys_tkv. apply snodup_nodup in Hnd. unfold abs_items in Hnd. rewrite map_map in Hnd. exact Hnd. }
    assert (G : all_P (fun kv => key_wf true (fst kv) /\
                                 match snd kv with
                                 | INone => False
                                 | IValue _ => pair_wf true (snd kv)
                                 | ITable sub => tbl_wf false sub /\ (if t_dotted sub then has_line sub = true \/ prints_header sub = true
                                                                      else shown sub = true \/ prints_header sub = true)
                                 | IAot ts _ => ts <> [] /\ all_P (fun e => t_dotted e = false /\ tbl_wf false e) ts
                                 end) (map (tkv s) items)
                /\ all_P (fun kv => match snd kv with
                                    | IValue _ => line_lim (S n) (snd kv)
                                    | ITable sub => if t_dotted sub then tbl_lim (S h) (S n) sub else S h < LIMIT /\ tbl_lim (S h) 0 sub
                                    | IAot ts _ => S h < LIMIT /\ all_P (fun e => tbl_lim (S h) 0 e) ts
                                    | INone => True
                                    end) (map (tkv s) items)).
    { clear Hkeys Hnd Hd. unfold abs_items in Hsn. rewrite forallb_map in Hsn || idtac.
      induction items as [|[k it] items IHi]; [split; exact I|]. inversion IH as [|? ? H1 H2]; subst.
      destruct Hall as [[Hk Hent] Hall]. destruct Hf as [Hfe Hf]. unfold mok_items in Hm. cbn [forallb snd] in Hm. apply andb_true_iff in Hm as [Hm1 Hm2].
      cbn [map forallb abs_kv fst snd] in Hsn. apply andb_true_iff in Hsn as [Hs1 Hs2].
      destruct (IHi H2 Hall Hs2 Hm2 Hf) as [G1 G2]. cbn [map all_P tkv fst snd]. unfold fentry, fentry_of in Hfe. cbn [snd fst] in *.
      destruct it as [|v|sub|ts asp].
      - discriminate.
      - change (titem s (IValue v)) with (IValue (tvalue s v)). destruct Hent as [Hw Hl]. split; (split; [|assumption]); auto.
      - change (titem s (ITable sub)) with (ITable (ttbl s sub)). cbn [abs_item mok_item] in *. rewrite swf_node_tab in Hs1. destruct Hfe as [Hfs Hfc].
        rewrite (proj1 (t_flags_t sub)), has_line_t, shown_t, prints_header_t.
        destruct Hent as [Hh Hent]. destruct (H1 false (S h) _ Hent Hs1 Hm1 Hfs) as [W L].
        destruct (t_dotted sub); split; (split; [|assumption]); auto.
      - rewrite titem_aot. rewrite abs_item_aot, swf_node_aot in Hs1. apply andb_true_iff in Hs1 as [_ Hs1]. rewrite mok_item_aot in Hm1.
        destruct Hent as [Hh Hts]. destruct Hfe as [Hne Hfts].
        assert (Gts : all_P (fun e => t_dotted e = false /\ tbl_wf false e) (map (ttbl s) ts) /\ all_P (fun e => tbl_lim (S h) 0 e) (map (ttbl s) ts)).
        { clear -H1 Hts Hfts Hs1 Hm1. induction ts as [|e ts IHt]; [split; exact I|]. inversion H1; subst. destruct Hts as [He Hts]. destruct Hfts as [Hfe Hfts].
          cbn [forallb map] in *. apply andb_true_iff in Hs1 as [Hse Hs1]. apply andb_true_iff in Hm1 as [Hme Hm1]. unfold mok_elem in Hme. apply andb_true_iff in Hme as [Hde Hme].
          rewrite forallb_map in Hse || idtac.
          destruct (IHt Hts Hs1 Hm1 Hfts H3) as [A B]. destruct (H2 false (S h) 0 He Hse Hme Hfe) as [W L]. cbn [all_P].
          rewrite (proj1 (t_flags_t e)). apply negb_true_iff in Hde. auto. }
        destruct Gts as [A B]. split; (split; [|assumption]); auto. split; [exact Hk|]. split; [destruct ts; [congruence|discriminate]|exact A]. }
    destruct G as [G1 G2]. split; [split; [exact Hd|split; [exact Hkeys|exact G1]]|exact G2].
  Qed.
End T.

(* ---- THE theorem: every accepted document is well-formed, up to the order of its sections ------------------------- *)
Definition WF_slots (root : tbl) : Prop := t_dotted root = false /\ tbl_wf true root /\ tbl_lim 0 0 root.

Theorem parse_WF_total s d : parse_document s = POk d ->
  WF_slots (ttbl s (doc_root d)) /\ raw_ok SDocTrail (traw s (doc_trailing d)).
Proof.
  intro Hp. destruct (parsed_slots s d Hp) as (Htw & Hrd & Htr). destruct (parsed_struct s d Hp) as [Hm Hs].
  destruct (parse_document_sound s d Hp) as (stmts & _ & _ & _ & Hrun).
  pose proof (code_run_g dval _ _ Hrun) as Hg. unfold abs_doc in Hg.
  pose proof (flags_of_gtree (doc_root d) (twl_di s _ _ _ _ Htw) Hm Hg) as Hf.
  destruct (assemble s (doc_root d) true 0 0 Htw Hs Hm Hf) as [W L].
  split; [|exact Htr]. split; [|split; [exact W|exact L]].
  rewrite (proj1 (t_flags_t s (doc_root d))). exact Hrd.
Qed.

(* in terms of the partial despan of Model/Encode.v (ImDocument::into_mut) *)
Theorem parse_WF s d r t : parse_document s = POk d ->
  tbl_despan s (doc_root d) = Some r -> raw_despan s (doc_trailing d) = Some t ->
  WF_slots r /\ raw_ok SDocTrail t.
Proof.
  intros Hp Er Et. destruct (parse_WF_total s d Hp) as [H1 H2].
  rewrite (raw_despan_traw s _ _ Et). destruct (tree_despan_t s) as (_ & _ & Ht). rewrite (Ht _ _ Er). auto.
Qed.
