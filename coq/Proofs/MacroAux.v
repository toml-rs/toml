(* Proofs/MacroAux.v — C19: the remaining states of toml_internal!: @path (key strings), @value (dispatch
   on the value token), @trailingcomma (appends a comma unless there is one), and the two header rules
   of @toplevel. *)
From TV Require Import Base.Prelude Model.Numbers Model.Macro Spec.MacroSpec.
From TV Require Import Proofs.MacroMatch Proofs.MacroRules Proofs.MacroTails Proofs.MacroEval.

(* @path *)
Lemma path_rule_ident : forall s, ident_frag_ok s = true ->
  first_match rules [TPunct c_at; TIdent id_path; TIdent s] = Some (BPathIdent, [(Vident, BTT (TIdent s))]).
Proof.
  intros s H. eapply state_first_head; [exact rules_path_state|].
  rewrite pstate_match, seq_match_cons. cbn [match_pat]. rewrite H. reflexivity.
Qed.

Lemma path_rule_lit : forall l,
  first_match rules [TPunct c_at; TIdent id_path; TLit l] = Some (BPathQuoted, [(Vquoted, BTT (TLit l))]).
Proof. intro l. vm_compute. reflexivity. Qed.

Lemma path_str_ident : forall s, ident_frag_ok s = true -> path_str (TIdent s) = EOk s.
Proof. intros s H. unfold path_str. rewrite (path_rule_ident s H). reflexivity. Qed.

Lemma path_str_lit : forall l, path_str (TLit l) = match concat_piece (TLit l) with Some s => EOk s | None => ECompile end.
Proof. intro l. unfold path_str. rewrite path_rule_lit. reflexivity. Qed.

(* an all-digit literal has no radix prefix and no suffix *)
Lemma int_prefix_single : forall b, int_prefix [b] = (10%N, [b]).
Proof. intro b; destruct b; reflexivity. Qed.
Lemma int_prefix_digit2 : forall b1 b2 r, is_digit b2 = true -> int_prefix (b1 :: b2 :: r) = (10%N, b1 :: b2 :: r).
Proof. intros b1 b2 r H. destruct b1; try reflexivity. destruct b2; try reflexivity; discriminate H. Qed.

Lemma is_digit_not_us : forall b, is_digit b = true -> byte_eqb b x5f = false.
Proof. intros b H. exact (byte_eqb_apart is_digit b x5f H eq_refl). Qed.
Lemma radix10_digit : forall b, is_digit b = true -> radix_digit 10 b = Some (digit_val b).
Proof. intro b; destruct b; intro H; try discriminate H; reflexivity. Qed.

Lemma int_scan_digits : forall s acc seen, forallb is_digit s = true ->
  int_scan 10 acc seen s = (dec_value_acc acc s, seen || negb (match s with [] => true | _ => false end), []).
Proof.
  induction s as [|b s IH]; intros acc seen H.
  - cbn. rewrite orb_false_r. reflexivity.
  - cbn [forallb] in H. apply andb_true_iff in H as [Hb Hs].
    cbn [int_scan]. rewrite (is_digit_not_us b Hb), (radix10_digit b Hb). rewrite (IH _ true Hs).
    cbn [dec_value_acc orb negb]. rewrite orb_true_r. reflexivity.
Qed.

Lemma rust_int_lit_digits : forall s, s <> [] -> forallb is_digit s = true -> rust_int_lit s = Some (dec_value s, []).
Proof.
  intros s Hne H. unfold rust_int_lit.
  assert (Hp : int_prefix s = (10%N, s)).
  { destruct s as [|b1 [|b2 r]]; [contradiction|apply int_prefix_single|].
    apply int_prefix_digit2. cbn [forallb] in H. apply andb_true_iff in H as [_ H]. apply andb_true_iff in H as [H _]. exact H. }
  rewrite Hp. rewrite (int_scan_digits s 0%N false H). destruct s; [contradiction|]. reflexivity.
Qed.

Lemma path_str_part : forall p, part_ok p = true -> path_str (part_tok p) = EOk (part_text p).
Proof.
  intros [s|s] H; cbn [part_ok part_tok part_text] in *.
  - apply path_str_ident. unfold ident_ok in H. destruct s as [|b r]; [discriminate|].
    apply andb_true_iff in H as [_ H]. exact H.
  - rewrite path_str_lit. unfold int_key_ok in H. destruct s as [|b r] eqn:Es; [discriminate|]. rewrite <- Es in *.
    apply andb_true_iff in H as [Hd He]. cbn [concat_piece].
    rewrite (rust_int_lit_digits s); [|subst; discriminate|exact Hd].
    apply bytes_eqb_eq in He. rewrite He. reflexivity.
Qed.

(* the token trees of a key segment *)
Definition seg_parts (s : kseg) : list tt :=
  match s with KQuoted q => [TLit (LStr q)] | KBare ps => List.map part_tok ps end.

Lemma seg_toks_dash : forall s, seg_toks s = dash_join (seg_parts s).
Proof.
  intros [ps|q]; [|reflexivity]. unfold seg_toks, dash_join, seg_parts. rewrite map_map. reflexivity.
Qed.
Lemma key_toks_dot : forall p, key_toks p = dot_join (List.map seg_parts p).
Proof.
  intro p. unfold key_toks, dot_join. rewrite map_map. f_equal. apply map_ext. exact seg_toks_dash.
Qed.

(* emap over a list of which every element is fine *)
Lemma emap_map : forall {A B C} (f : B -> eres C) (g : A -> B) (h : A -> C) (ok : A -> bool) l,
  (forall a, ok a = true -> f (g a) = EOk (h a)) -> forallb ok l = true ->
  emap f (List.map g l) = EOk (List.map h l).
Proof.
  intros A B C f g h ok l Hf. induction l as [|a l IH]; intro H; [reflexivity|].
  cbn [forallb] in H. apply andb_true_iff in H as [Ha Hl].
  cbn [List.map emap]. rewrite (Hf a Ha). cbn [ebind]. rewrite (IH Hl). reflexivity.
Qed.

Lemma seg_str_seg : forall s, seg_ok s = true -> seg_str (seg_parts s) = EOk (seg_string s).
Proof.
  intros [ps|q] H; cbn [seg_ok seg_parts seg_string] in *.
  - unfold seg_str. destruct ps as [|p ps]; [discriminate|]. rewrite (emap_map _ _ _ _ (p :: ps) path_str_part H). reflexivity.
  - unfold seg_str. cbn [emap]. rewrite path_str_lit. reflexivity.
Qed.

Lemma key_strs_path : forall p, forallb seg_ok p = true ->
  key_strs (List.map seg_parts p) = EOk (path_strings p).
Proof. exact (fun p => emap_map _ _ _ _ p seg_str_seg). Qed.

Lemma seg_parts_nonempty : forall s, seg_ok s = true -> seg_parts s <> [].
Proof. intros [[|p ps]|q] H; cbn in *; discriminate. Qed.

Lemma path_segs_ok : forall p, path_ok p = true -> segs_ok (List.map seg_parts p) /\ forallb seg_ok p = true.
Proof.
  intros p H. unfold path_ok in H. destruct p as [|s p]; [discriminate|].
  apply andb_true_iff in H as [H _]. split; [|exact H]. split; [discriminate|].
  revert H. generalize (s :: p). intro l. induction l as [|a l IH]; intro H; [constructor|].
  cbn [forallb] in H. apply andb_true_iff in H as [Ha Hl]. cbn [List.map]. constructor; [apply seg_parts_nonempty; exact Ha|apply IH; exact Hl].
Qed.

Lemma path_strs_toks : forall strs, path_strs (List.map path_tok strs) = EOk strs.
Proof.
  unfold path_strs. induction strs as [|s strs IH]; [reflexivity|].
  cbn [List.map emap path_tok]. cbn [ebind]. rewrite IH. reflexivity.
Qed.

(* @value *)
Definition value_in (t : tt) : list tt := [TPunct c_at; TIdent id_value; t].

Lemma state_toks_value : forall t, state_toks id_value ++ [t] = value_in t.
Proof. reflexivity. Qed.

Lemma value_rule_brace : forall g,
  first_match rules (value_in (TGroup DBrace g)) = Some (BValTable q_table_inline, [(Vinline, tts_bnd g)]).
Proof.
  intro g. eapply state_first_head; [exact rules_value_state|].
  rewrite pstate_match, seq_match_cons, match_group_star. reflexivity.
Qed.

Lemma value_rule_bracket : forall g,
  first_match rules (value_in (TGroup DBracket g)) = Some (BValArray q_array_inline, [(Vinline, tts_bnd g)]).
Proof.
  intro g. unfold value_in. rewrite first_match_state, rules_value_state. cbn [skipn rules_path_value first_match].
  unfold match_rule, match_seq. cbn [r_head]. rewrite !pstate_match, !seq_match_cons, match_group_star. reflexivity.
Qed.

Lemma value_rule_lit : forall l, first_match rules (value_in (TLit l)) = Some (BValOther, [(Vv, BTT (TLit l))]).
Proof. intro l. vm_compute. reflexivity. Qed.
Lemma value_rule_true : first_match rules (value_in (TIdent id_true)) = Some (BValOther, [(Vv, BTT (TIdent id_true))]).
Proof. vm_compute. reflexivity. Qed.
Lemma value_rule_false : first_match rules (value_in (TIdent id_false)) = Some (BValOther, [(Vv, BTT (TIdent id_false))]).
Proof. vm_compute. reflexivity. Qed.
Lemma value_rule_paren_lit : forall l,
  first_match rules (value_in (TGroup DParen [TLit l])) = Some (BValOther, [(Vv, BTT (TGroup DParen [TLit l]))]).
Proof. intro l. vm_compute. reflexivity. Qed.
Lemma value_rule_paren_neg_lit : forall l,
  first_match rules (value_in (TGroup DParen [TPunct c_minus; TLit l]))
  = Some (BValNeg, [(Vv, BTT (TLit l))]).
Proof. intro l. vm_compute. reflexivity. Qed.

(* the six spellings of the special floats *)
Lemma value_special : forall (neg paren nan : bool) cur,
  (neg = true -> paren = true) ->
  Ev cur (value_in (let id := TIdent (if nan then id_nan else id_inf) in
                    if paren then TGroup DParen ((if neg then [TPunct c_minus] else []) ++ [id]) else id))
     (EOk (MFloat (if nan then FNan neg else FInf neg))) 1.
Proof.
  intros neg paren nan cur H.
  destruct neg, paren, nan; try (exfalso; specialize (H eq_refl); discriminate H);
    (eapply Ev_valconst; vm_compute; reflexivity).
Qed.

(* @trailingcomma *)
Definition tc_in (A X : list tt) : list tt := TPunct c_at :: TIdent id_trailingcomma :: TGroup DParen A :: X.

Lemma tc_head : forall ps A X,
  match_seq (pstate id_trailingcomma ++ argsG :: ps) (tc_in A X) =
  match seq_match match_pat ps X with
  | Some (e, r) => Some ((Vargs, tts_bnd A) :: e, r)
  | None => None
  end.
Proof.
  intros. unfold match_seq, tc_in, argsG. rewrite pstate_match, seq_match_cons, match_group_star.
  destruct (seq_match match_pat ps X) as [[e r]|]; reflexivity.
Qed.

(* the four rules of @trailingcomma, in terms of what follows the parenthesised group *)
Lemma tc_rules : forall A X,
  first_match rules (tc_in A X) =
  match X with
  | [] => Some (BInvoke [starQ Vargs], [(Vargs, tts_bnd A)])
  | [t] =>
    match match_pat (P c_comma) [t] with
    | Some _ => Some (BInvoke [starQ Vargs; Q c_comma], [(Vargs, tts_bnd A)])
    | None => Some (BInvoke [starQ Vargs; QVar Vlast; Q c_comma], [(Vargs, tts_bnd A); (Vlast, BTT t)])
    end
  | t1 :: t2 :: X' =>
    Some (BInvoke (qstate id_trailingcomma ++ [QGroup DParen [starQ Vargs; QVar Vfirst]; starQ Vrest]),
          [(Vargs, tts_bnd A); (Vfirst, BTT t1); (Vrest, tts_bnd (t2 :: X'))])
  end.
Proof.
  intros A X. unfold tc_in. rewrite first_match_state, rules_tc_state. fold (tc_in A X).
  unfold rules_trailingcomma. cbn [first_match]. unfold match_rule. cbn [r_head r_body]. rewrite !tc_head.
  destruct X as [|t1 [|t2 X']]; [reflexivity| |].
  - destruct t1 as [s|l|c|d g]; try reflexivity.
    cbn [seq_match P match_pat]. destruct (byte_eqb c_comma c); reflexivity.
  - rewrite (seq_match_cons _ (V Vfirst)), match_tt, (seq_match_cons _ (plusP Vrest)), (match_plus Vrest (t2 :: X')) by discriminate.
    destruct t1 as [s|l|c|d g]; try reflexivity.
    cbn [seq_match P match_pat]. destruct (byte_eqb c_comma c); reflexivity.
Qed.

Lemma tr_star_args : forall e A, lookup Vargs e = Some (tts_bnd A) -> transcribe (starQ Vargs) e = A.
Proof. intros. apply transcribe_star. assumption. Qed.

Lemma Ev_tc_nil : forall cur A r n, Ev cur A r n -> Ev cur (tc_in A []) r (S n).
Proof.
  intros cur A r n H. eapply Ev_invoke; [exact (tc_rules A [])|].
  unfold transcribe_seq. cbn [flat_map]. rewrite (tr_star_args _ A), app_nil_r by reflexivity. exact H.
Qed.

(* while two or more tokens follow the group, the first of them moves into it *)
Lemma Ev_tc_more : forall cur X A t r n,
  Ev cur (tc_in (A ++ X) [t]) r n -> Ev cur (tc_in A (X ++ [t])) r (List.length X + n).
Proof.
  intros cur X. induction X as [|t1 X IH]; intros A t r n H.
  - rewrite app_nil_r in H. exact H.
  - cbn [app List.length Nat.add].
    assert (EX : exists t2 X2, X ++ [t] = t2 :: X2) by (destruct X; cbn [app]; eauto).
    destruct EX as [t2 [X2 EX]].
    eapply Ev_invoke; [rewrite EX; exact (tc_rules A (t1 :: t2 :: X2))|].
    unfold transcribe_seq. cbn [qstate app flat_map]. cbn [transcribe Q flat_map].
    rewrite (tr_star_args _ A), (transcribe_star Vrest _ (t2 :: X2)) by reflexivity.
    cbn [transcribe lookup var_beq app]. rewrite ?app_nil_r, <- EX.
    apply (IH (A ++ [t1])). rewrite <- app_assoc. exact H.
Qed.

Lemma Ev_tc_plain : forall cur X A t r n, is_plain t = true ->
  Ev cur (A ++ X ++ [t; TPunct c_comma]) r n -> Ev cur (tc_in A (X ++ [t])) r (S (List.length X) + n).
Proof.
  intros cur X A t r n Ht H. replace (S (List.length X) + n) with (List.length X + S n) by lia. apply Ev_tc_more.
  eapply Ev_invoke; [rewrite tc_rules; destruct t; try discriminate Ht; reflexivity|].
  unfold transcribe_seq. cbn [flat_map]. rewrite (tr_star_args _ (A ++ X)) by reflexivity.
  cbn [transcribe lookup var_beq Q app]. rewrite <- app_assoc. exact H.
Qed.

Lemma Ev_tc_comma : forall cur X A r n,
  Ev cur (A ++ X ++ [TPunct c_comma]) r n -> Ev cur (tc_in A (X ++ [TPunct c_comma])) r (S (List.length X) + n).
Proof.
  intros cur X A r n H. replace (S (List.length X) + n) with (List.length X + S n) by lia. apply Ev_tc_more.
  eapply Ev_invoke; [exact (tc_rules (A ++ X) [TPunct c_comma])|].
  unfold transcribe_seq. cbn [flat_map]. rewrite (tr_star_args _ (A ++ X)) by reflexivity.
  cbn [transcribe Q app]. rewrite <- app_assoc. exact H.
Qed.

(* headers *)
(* every token of a key is an identifier or a literal *)
Definition key_tok (t : tt) : bool := match t with TIdent _ | TLit _ => true | _ => false end.

Definition E_hdr (r : bytes) (pt : list tt) (segs : list (list tt)) (R : list tt) : env :=
  [(Vroot, BTT (TIdent r)); (Voldpath, BTT (TGroup DBracket pt)); (Vpath, key_bnd segs); (Vrest, tts_bnd R)].

Lemma rest_ok_not_head : forall R c, rest_ok R = true -> not_head c R = true.
Proof. intros [|[s|l|c0|d g] R] c H; try reflexivity. discriminate H. Qed.

Lemma rest_ok_no_eq : forall R, rest_ok R = true -> match_pat (P c_eq) R = None.
Proof. intros [|[s|l|c0|d g] R] H; try reflexivity. discriminate H. Qed.

Lemma kv_rules_none : forall pre sfx tls X, seq_match match_pat pre X = None -> first_match (kv_rules pre sfx tls) X = None.
Proof.
  intros pre sfx tls X H. induction tls as [|[tl b] tls IH]; [reflexivity|].
  cbn [kv_rules List.map first_match]. unfold match_rule, match_seq. cbn [r_head]. rewrite seq_match_app, H. exact IH.
Qed.

(* a `[..]` group where a key is expected: the key/value rules take the group as the key and then miss `=`;
   the rule for the end of the input sees a token too many *)
Lemma hdr_rules : forall r pt G R, ident_frag_ok r = true -> rest_ok R = true ->
  first_match rules (top_in r pt (TGroup DBracket G :: R))
  = first_match [rule_arrhdr; rule_tabhdr] (top_in r pt (TGroup DBracket G :: R)).
Proof.
  intros r pt G R Hr HR. pose proof (path_prefix id_toplevel r pt (TGroup DBracket G :: R) Hr) as Hpre.
  unfold top_in. unfold st_in in Hpre. rewrite first_match_state, rules_toplevel_state. cbn [first_match].
  rewrite (match_rule_of (mkRule top_prefix BNothing) _ _ _ Hpre).
  rewrite first_match_app, kv_rules_none; [reflexivity|].
  unfold top_pre, top_prefix. rewrite seq_match_app, Hpre, seq_match_cons.
  change (TGroup DBracket G :: R) with (dot_join [[TGroup DBracket G]] ++ R).
  rewrite (match_key Vk [[TGroup DBracket G]] R); [|discriminate|repeat constructor; discriminate
                                                    |apply rest_ok_not_head; exact HR|apply rest_ok_not_head; exact HR].
  rewrite seq_match_cons, (rest_ok_no_eq R HR). reflexivity.
Qed.

Lemma hdr_rule : forall keypat b r pt G R, ident_frag_ok r = true ->
  match_rule (mkRule (pstate id_toplevel ++ [rootP; V Voldpath; PGroup DBracket keypat; starP Vrest]) b)
             (top_in r pt (TGroup DBracket G :: R))
  = match seq_match match_pat keypat G with
    | Some (e, []) => Some ([(Vroot, BTT (TIdent r)); (Voldpath, BTT (TGroup DBracket pt))] ++ e ++ [(Vrest, tts_bnd R)])
    | _ => None
    end.
Proof.
  intros keypat b r pt G R Hr. unfold match_rule, match_seq, top_in. cbn [r_head].
  rewrite pstate_match, seq_match_cons, (match_root r _ Hr), seq_match_cons, match_tt, seq_match_cons, match_group.
  destruct (seq_match match_pat keypat G) as [[e [|t X]]|]; try reflexivity.
  rewrite seq_match_cons, match_star. reflexivity.
Qed.

(* a key begins with the first token of its first segment; then `-`, `.`, or whatever follows the key *)
Lemma dot_join_front : forall segs R, segs_ok segs ->
  exists t s segs' X, segs = (t :: s) :: segs' /\ dot_join segs ++ R = t :: X /\
    (X = R \/ exists c X', X = TPunct c :: X' /\ (c = c_minus \/ c = c_dot)).
Proof.
  intros [|[|t s] segs'] R [Hne Hall]; [contradiction|inversion Hall; contradiction|].
  exists t, s, segs'. destruct s as [|t2 s]; destruct segs' as [|s2 segs'']; eexists; (split; [reflexivity|]).
  - split; [reflexivity|left; reflexivity].
  - rewrite dot_join_cons2. split; [reflexivity|right; eauto].
  - unfold dot_join. cbn [List.map join_tts]. rewrite dash_join_cons2. split; [reflexivity|right; eauto].
  - rewrite dot_join_cons2, dash_join_cons2. split; [reflexivity|right; eauto].
Qed.

Lemma dot_join_not_group : forall segs, segs_ok segs -> Forall (Forall (fun t => key_tok t = true)) segs ->
  exists t X, dot_join segs = t :: X /\ key_tok t = true.
Proof.
  intros segs Hs Hk. destruct (dot_join_front segs [] Hs) as [t [s [segs' [X [-> [HX _]]]]]].
  rewrite app_nil_r in HX. exists t, X. split; [exact HX|].
  inversion Hk as [|? ? Hks _]; subst. inversion Hks; assumption.
Qed.

Lemma key_alone : forall x segs, segs_ok segs ->
  seq_match match_pat [keyP x] (dot_join segs) = Some ([(x, key_bnd segs)], []).
Proof.
  intros x segs [Hne Hall]. rewrite seq_match_cons. rewrite <- (app_nil_r (dot_join segs)).
  rewrite (match_key x segs [] Hne Hall eq_refl eq_refl). reflexivity.
Qed.

Theorem tabhdr_first_match : forall r pt segs R, ident_frag_ok r = true -> segs_ok segs ->
  Forall (Forall (fun t => key_tok t = true)) segs -> rest_ok R = true ->
  first_match rules (top_in r pt (TGroup DBracket (dot_join segs) :: R)) = Some (BTabHeader, E_hdr r pt segs R).
Proof.
  intros r pt segs R Hr Hs Hk HR. rewrite (hdr_rules r pt _ R Hr HR). cbn [first_match].
  unfold rule_arrhdr, rule_tabhdr. rewrite !(hdr_rule _ _ r pt _ R Hr), (key_alone Vpath segs Hs).
  destruct (dot_join_not_group segs Hs Hk) as [t [X [-> Ht]]].
  rewrite seq_match_cons. destruct t as [s|l|c|d g]; try discriminate Ht; reflexivity.
Qed.

Theorem arrhdr_first_match : forall r pt segs R, ident_frag_ok r = true -> segs_ok segs -> rest_ok R = true ->
  first_match rules (top_in r pt (TGroup DBracket [TGroup DBracket (dot_join segs)] :: R)) = Some (BArrHeader, E_hdr r pt segs R).
Proof.
  intros r pt segs R Hr Hs HR. rewrite (hdr_rules r pt _ R Hr HR). cbn [first_match].
  unfold rule_arrhdr. rewrite (hdr_rule _ _ r pt _ R Hr), seq_match_cons, match_group, (key_alone Vpath segs Hs). reflexivity.
Qed.
