(* Proofs/DefsEquivSpec.v — C09: algebra of the spec-side operations of Spec/Defs.v
   (independent of the model): association-list laws, well-formedness of spec trees, the path
   walker with outputs (one step of a walk, composition / extensionality / invariants), what the
   leaves of a tree satisfy, plugging lemmas for the detached current section. *)
From TV Require Import Base.Prelude Spec.Defs.
From TV Require Import Base.BytesFacts.

Lemma unsnoc_app {A} (pre : list A) (k : A) : unsnoc (pre ++ [k]) = Some (pre, k).
Proof. unfold unsnoc. rewrite rev_app_distr. cbn [rev app]. rewrite rev_involutive. reflexivity. Qed.

Lemma rev_cons_eq {A} (l : list A) e before : rev l = e :: before -> l = rev before ++ [e].
Proof. intro H. rewrite <- (rev_involutive l), H. reflexivity. Qed.

Lemma rbind_assoc {A B C} (r : res A) (f : A -> res B) (g : B -> res C) :
  rbind (rbind r f) g = rbind r (fun a => rbind (f a) g).
Proof. destruct r; reflexivity. Qed.

Lemma rbind_ext {A B} (r : res A) (f g : A -> res B) : (forall a, f a = g a) -> rbind r f = rbind r g.
Proof. intro H. destruct r; cbn [rbind]; [apply H | reflexivity | reflexivity]. Qed.

Section SpecAlg.
Context {V : Type}.
Notation stree := (stree V).
Notation node := (node V).

(* ---- association lists ------------------------------------------------------------------ *)
Lemma sget_spush (t : stree) k n k0 :
  sget (spush t k n) k0 =
  match sget t k0 with Some x => Some x | None => if bytes_eqb k k0 then Some n else None end.
Proof.
  unfold spush. induction t as [|[k' n'] tl IH]; cbn [app sget].
  - reflexivity.
  - destruct (bytes_eqb k' k0); [reflexivity | exact IH].
Qed.

Lemma sget_spush_same (t : stree) k n : sget t k = None -> sget (spush t k n) k = Some n.
Proof. intro H. rewrite sget_spush, H, bytes_eqb_refl. reflexivity. Qed.

Lemma sset_spush (t : stree) k n n' : sget t k = None -> sset (spush t k n) k n' = spush t k n'.
Proof.
  unfold spush. induction t as [|[k' x] tl IH]; cbn [app sget sset]; intro H.
  - rewrite bytes_eqb_refl. reflexivity.
  - destruct (bytes_eqb k' k); [discriminate|]. rewrite IH by exact H. reflexivity.
Qed.

Lemma sget_sset_same (t : stree) k n :
  sget (sset t k n) k = match sget t k with Some _ => Some n | None => None end.
Proof.
  induction t as [|[k' x] tl IH]; cbn [sget sset]; [reflexivity|].
  destruct (bytes_eqb k' k) eqn:E; cbn [sget]; rewrite E; [reflexivity | exact IH].
Qed.

Lemma sset_sset (t : stree) k n n' : sset (sset t k n) k n' = sset t k n'.
Proof.
  induction t as [|[k' x] tl IH]; cbn [sset]; [reflexivity|].
  destruct (bytes_eqb k' k) eqn:E; cbn [sset]; rewrite E; [reflexivity | rewrite IH; reflexivity].
Qed.

Definition is_some {A} (o : option A) : bool := match o with Some _ => true | None => false end.

Lemma sget_sset_is_some (t : stree) k n k0 : is_some (sget (sset t k n) k0) = is_some (sget t k0).
Proof.
  induction t as [|[k' x] tl IH]; cbn [sget sset]; [reflexivity|].
  destruct (bytes_eqb k' k) eqn:E; cbn [sget]; destruct (bytes_eqb k' k0); try reflexivity. exact IH.
Qed.

Lemma sget_sset_other (t : stree) k n k0 : bytes_eqb k k0 = false -> sget (sset t k n) k0 = sget t k0.
Proof.
  intro Hne. induction t as [|[k' x] tl IH]; cbn [sget sset]; [reflexivity|].
  destruct (bytes_eqb k' k) eqn:E; cbn [sget].
  - destruct (bytes_eqb k' k0) eqn:E0; [|reflexivity].
    apply bytes_eqb_eq in E. apply bytes_eqb_eq in E0. subst. rewrite bytes_eqb_refl in Hne. discriminate.
  - destruct (bytes_eqb k' k0); [reflexivity | exact IH].
Qed.

Lemma sget_sremove_none (t : stree) k k0 : sget t k0 = None -> sget (sremove t k) k0 = None.
Proof.
  induction t as [|[k' x] tl IH]; cbn [sget sremove]; [reflexivity|].
  destruct (bytes_eqb k' k0) eqn:E0; [discriminate|]. intro H.
  destruct (bytes_eqb k' k); [exact H|]. cbn [sget]. rewrite E0. exact (IH H).
Qed.

Lemma sget_sremove_other (t : stree) k k0 : bytes_eqb k k0 = false -> sget (sremove t k) k0 = sget t k0.
Proof.
  intro Hne. induction t as [|[k' x] tl IH]; cbn [sget sremove]; [reflexivity|]. destruct (bytes_eqb k' k) eqn:E.
  - apply bytes_eqb_eq in E. subst k'. rewrite Hne. reflexivity.
  - cbn [sget]. rewrite IH. reflexivity.
Qed.

Lemma sget_in (t : stree) k n : sget t k = Some n -> In (k, n) t.
Proof.
  induction t as [|[k' x] tl IH]; cbn [sget]; [discriminate|]. destruct (bytes_eqb k' k) eqn:E; [|right; apply IH; assumption].
  intro H. injection H as ->. apply bytes_eqb_eq in E. subst k'. left. reflexivity.
Qed.

Lemma sget_none_notin (t : stree) k : sget t k = None <-> ~ In k (map fst t).
Proof.
  induction t as [|[k' x] tl IH]; cbn [sget map fst In]; [tauto|]. destruct (bytes_eqb k' k) eqn:E.
  - apply bytes_eqb_eq in E. subst. split; [discriminate|]. intro H. exfalso. apply H. left. reflexivity.
  - rewrite IH. split; [intros H [X|X]; [subst; rewrite bytes_eqb_refl in E; discriminate|tauto]|tauto].
Qed.

Lemma sget_sremove_same (t : stree) k : NoDup (map fst t) -> sget (sremove t k) k = None.
Proof.
  induction t as [|[k' x] tl IH]; cbn [sget sremove map fst]; [reflexivity|]. intro Hnd. inversion Hnd as [|? ? Hnot Hnd']; subst.
  destruct (bytes_eqb k' k) eqn:E.
  - apply bytes_eqb_eq in E. subst k'. apply sget_none_notin, Hnot.
  - cbn [sget]. rewrite E. apply IH, Hnd'.
Qed.

Lemma sget_app (a b : stree) k : sget (a ++ b) k = match sget a k with Some n => Some n | None => sget b k end.
Proof. induction a as [|[k' x] a IH]; cbn [sget app]; [reflexivity|]. destruct (bytes_eqb k' k); [reflexivity|exact IH]. Qed.
Lemma sget_app_none (a b : stree) k : sget a k = None -> sget (a ++ b) k = sget b k.
Proof. intro H. rewrite sget_app, H. reflexivity. Qed.
Lemma sget_mid (A B : stree) k n : ~ In k (map fst A) -> sget (A ++ (k, n) :: B) k = Some n.
Proof. intro H. rewrite sget_app_none by (apply sget_none_notin, H). cbn [sget]. rewrite bytes_eqb_refl. reflexivity. Qed.

Lemma sset_same (t : stree) k n : sget t k = Some n -> sset t k n = t.
Proof.
  induction t as [|[k' x] t IH]; cbn [sget sset]; [reflexivity|]. destruct (bytes_eqb k' k) eqn:E.
  - intro H. inversion H; subst. apply bytes_eqb_eq in E. subst. reflexivity.
  - intro H. rewrite (IH H). reflexivity.
Qed.
Lemma sset_app_r (a b : stree) k n : sget a k = None -> sset (a ++ b) k n = a ++ sset b k n.
Proof.
  induction a as [|[k' x] a IH]; cbn [sget sset app]; [reflexivity|]. destruct (bytes_eqb k' k); [discriminate|].
  intro H. rewrite (IH H). reflexivity.
Qed.
Lemma sset_hd (b : stree) k n n' : sset ((k, n) :: b) k n' = (k, n') :: b.
Proof. cbn [sset]. rewrite bytes_eqb_refl. reflexivity. Qed.
Lemma sset_mid (A B : stree) k n n' : ~ In k (map fst A) -> sset (A ++ (k, n) :: B) k n' = A ++ (k, n') :: B.
Proof. intro H. rewrite sset_app_r by (apply sget_none_notin, H). rewrite sset_hd. reflexivity. Qed.

(* ---- unique keys -------------------------------------------------------------------------- *)
Fixpoint snodup (t : stree) : bool :=
  match t with
  | [] => true
  | (k, _) :: tl => match sget tl k with None => snodup tl | Some _ => false end
  end.

Lemma snodup_spush t k n : snodup t = true -> sget t k = None -> snodup (spush t k n) = true.
Proof.
  induction t as [|[k' x] tl IH]; cbn [snodup sget]; intros Hn Hg.
  - reflexivity.
  - change (spush ((k', x) :: tl) k n) with ((k', x) :: spush tl k n). cbn [snodup].
    destruct (bytes_eqb k' k) eqn:E; [discriminate|].
    destruct (sget tl k') eqn:E1; [discriminate|].
    rewrite sget_spush, E1, bytes_eqb_sym, E. apply IH; assumption.
Qed.

Lemma snodup_sset t k n : snodup (sset t k n) = snodup t.
Proof.
  induction t as [|[k' x] tl IH]; cbn [snodup sset]; [reflexivity|].
  destruct (bytes_eqb k' k) eqn:E; cbn [snodup]; [reflexivity|].
  pose proof (sget_sset_is_some tl k n k') as Hs.
  destruct (sget (sset tl k n) k'), (sget tl k'); cbn in Hs; try discriminate; [reflexivity | exact IH].
Qed.

Lemma snodup_sremove t k : snodup t = true -> snodup (sremove t k) = true /\ sget (sremove t k) k = None.
Proof.
  induction t as [|[k' x] tl IH]; cbn [snodup sremove]; intro Hn.
  - split; reflexivity.
  - destruct (sget tl k') eqn:E1; [discriminate|].
    destruct (bytes_eqb k' k) eqn:E.
    + apply bytes_eqb_eq in E. subst. split; assumption.
    + destruct (IH Hn) as [IH1 IH2]. cbn [snodup sget]. rewrite E.
      rewrite (sget_sremove_none tl k k' E1). split; assumption.
Qed.

(* ---- well-formed spec trees: unique keys, no empty array of tables ---------------------- *)
Fixpoint swf_node (n : node) : bool :=
  match n with
  | NVal _ => true
  | NTab _ items =>
    (fix go (l : list (bytes * node)) : bool :=
       match l with [] => true | (_, n') :: tl => swf_node n' && go tl end) items && snodup items
  | NAot es =>
    match es with [] => false | _ => true end &&
    (fix goe (l : list (list (bytes * node))) : bool :=
       match l with
       | [] => true
       | e :: tl =>
         ((fix go (l : list (bytes * node)) : bool :=
             match l with [] => true | (_, n') :: tl => swf_node n' && go tl end) e && snodup e)
         && goe tl
       end) es
  end.

Definition swf_tree (t : stree) : bool := forallb (fun kn => swf_node (snd kn)) t && snodup t.

Lemma swf_go_eq (l : list (bytes * node)) :
  (fix go (l : list (bytes * node)) : bool :=
     match l with [] => true | (_, n') :: tl => swf_node n' && go tl end) l
  = forallb (fun kn => swf_node (snd kn)) l.
Proof. induction l as [|[k n] tl IH]; [reflexivity|]. cbn [forallb snd]. rewrite <- IH. reflexivity. Qed.

Lemma swf_node_tab kd items : swf_node (NTab kd items) = swf_tree items.
Proof. cbn [swf_node]. rewrite swf_go_eq. reflexivity. Qed.

Lemma swf_node_aot es :
  swf_node (NAot es) = match es with [] => false | _ => true end && forallb swf_tree es.
Proof.
  cbn [swf_node]. f_equal. induction es as [|e tl IH]; [reflexivity|].
  cbn [forallb]. rewrite <- IH. unfold swf_tree at 1. rewrite swf_go_eq. reflexivity.
Qed.

Lemma swf_nil : swf_tree [] = true.
Proof. reflexivity. Qed.

Lemma swf_split t : swf_tree t = true <-> forallb (fun kn => swf_node (snd kn)) t = true /\ snodup t = true.
Proof. unfold swf_tree. apply andb_true_iff. Qed.

Lemma swf_sget t k n : swf_tree t = true -> sget t k = Some n -> swf_node n = true.
Proof.
  intros H. apply swf_split in H as [H _]. induction t as [|[k' x] tl IH]; cbn [sget]; [discriminate|].
  cbn [forallb snd] in H. apply andb_true_iff in H as [H1 H2].
  destruct (bytes_eqb k' k); [intro E; inversion E; subst; exact H1 | apply IH; exact H2].
Qed.

Lemma swf_spush t k n : swf_tree t = true -> swf_node n = true -> sget t k = None -> swf_tree (spush t k n) = true.
Proof.
  intros H Hn Hg. apply swf_split in H as [H1 H2]. apply swf_split. split.
  - unfold spush. rewrite forallb_app. rewrite H1. cbn [forallb snd]. rewrite Hn. reflexivity.
  - apply snodup_spush; assumption.
Qed.

Lemma forallb_sset t k n :
  forallb (fun kn : bytes * node => swf_node (snd kn)) t = true -> swf_node n = true ->
  forallb (fun kn : bytes * node => swf_node (snd kn)) (sset t k n) = true.
Proof.
  intros H Hn. induction t as [|[k' x] tl IH]; cbn [sset]; [reflexivity|].
  cbn [forallb snd] in H. apply andb_true_iff in H as [H1 H2].
  destruct (bytes_eqb k' k); cbn [forallb snd].
  - rewrite Hn, H2. reflexivity.
  - rewrite H1, (IH H2). reflexivity.
Qed.

Lemma swf_sset t k n : swf_tree t = true -> swf_node n = true -> swf_tree (sset t k n) = true.
Proof.
  intros H Hn. apply swf_split in H as [H1 H2]. apply swf_split. split.
  - apply forallb_sset; assumption.
  - rewrite snodup_sset. exact H2.
Qed.

Lemma forallb_sremove t k :
  forallb (fun kn : bytes * node => swf_node (snd kn)) t = true ->
  forallb (fun kn : bytes * node => swf_node (snd kn)) (sremove t k) = true.
Proof.
  intros H. induction t as [|[k' x] tl IH]; cbn [sremove]; [reflexivity|].
  cbn [forallb snd] in H. apply andb_true_iff in H as [H1 H2].
  destruct (bytes_eqb k' k); [exact H2|]. cbn [forallb snd]. rewrite H1, (IH H2). reflexivity.
Qed.

Lemma swf_sremove t k : swf_tree t = true -> swf_tree (sremove t k) = true /\ sget (sremove t k) k = None.
Proof.
  intros H. apply swf_split in H as [H1 H2]. destruct (snodup_sremove t k H2) as [H3 H4].
  split; [|exact H4]. apply swf_split. split; [apply forallb_sremove; exact H1 | exact H3].
Qed.

Lemma swf_aot_last es e before :
  swf_node (NAot es) = true -> rev es = e :: before ->
  swf_tree e = true /\ forallb swf_tree (rev before) = true.
Proof.
  rewrite swf_node_aot. intros H Hr. apply andb_true_iff in H as [_ H].
  apply rev_cons_eq in Hr. subst es. rewrite forallb_app in H. apply andb_true_iff in H as [H1 H2].
  cbn [forallb] in H2. rewrite andb_true_r in H2. split; assumption.
Qed.

Lemma swf_aot_snoc l e : forallb swf_tree l = true -> swf_tree e = true -> swf_node (NAot (l ++ [e])) = true.
Proof.
  intros H1 H2. rewrite swf_node_aot. apply andb_true_iff. split.
  - destruct l; reflexivity.
  - rewrite forallb_app, H1. cbn [forallb]. rewrite H2. reflexivity.
Qed.

(* ---- the path walker with an output ------------------------------------------------------- *)
Fixpoint at_path_x {X : Type} (p : list bytes) (f : stree -> res (stree * X)) (t : stree)
  : res (stree * X) :=
  match p with
  | [] => f t
  | k :: p' =>
    match sget t k with
    | None => rbind (at_path_x p' f []) (fun cx => ROk (spush t k (NTab KSuper (fst cx)), snd cx))
    | Some (NVal _) => RInvalid
    | Some (NTab kd c) => rbind (at_path_x p' f c) (fun cx => ROk (sset t k (NTab kd (fst cx)), snd cx))
    | Some (NAot es) =>
      match rev es with
      | [] => RInvalid
      | e :: before =>
        rbind (at_path_x p' f e) (fun cx => ROk (sset t k (NAot (rev before ++ [fst cx])), snd cx))
      end
    end
  end.

Definition lift (f : stree -> res stree) (t : stree) : res (stree * unit) :=
  rbind (f t) (fun r => ROk (r, tt)).

Lemma lift_ok f t t' y : lift f t = ROk (t', y) -> f t = ROk t'.
Proof. unfold lift. destruct (f t); cbn [rbind]; intro H; inversion H; reflexivity. Qed.

(* One step of a walk: the table under key k (a new super-table if there is none, the newest
   element of an array of tables) and how t is put together again around its new content.  The
   walkers do their case analysis here and nowhere else. *)
Definition enter (k : bytes) (t : stree) : option (stree * (stree -> stree)) :=
  match sget t k with
  | None => Some ([], fun c => spush t k (NTab KSuper c))
  | Some (NVal _) => None
  | Some (NTab kd c) => Some (c, fun c' => sset t k (NTab kd c'))
  | Some (NAot es) =>
    match rev es with
    | [] => None
    | e :: before => Some (e, fun e' => sset t k (NAot (rev before ++ [e'])))
    end
  end.

Lemma at_path_cons k p (f : stree -> res stree) t :
  at_path (k :: p) f t =
  match enter k t with Some (c, w) => c' <~ at_path p f c ;; ROk (w c') | None => RInvalid end.
Proof.
  cbn [at_path]. unfold enter. destruct (sget t k) as [[v|kd c|es]|]; try reflexivity.
  destruct (rev es); reflexivity.
Qed.

Lemma at_path_x_cons {X} k p (F : stree -> res (stree * X)) t :
  at_path_x (k :: p) F t =
  match enter k t with
  | Some (c, w) => rbind (at_path_x p F c) (fun cx => ROk (w (fst cx), snd cx))
  | None => RInvalid
  end.
Proof.
  cbn [at_path_x]. unfold enter. destruct (sget t k) as [[v|kd c|es]|]; try reflexivity.
  destruct (rev es); reflexivity.
Qed.

(* entering the same key again meets what was put there *)
Lemma enter_put k t c w c1 :
  enter k t = Some (c, w) -> exists w1, enter k (w c1) = Some (c1, w1) /\ forall c2, w1 c2 = w c2.
Proof.
  unfold enter. destruct (sget t k) as [[v|kd c0|es]|] eqn:E.
  - discriminate.
  - intro H. inversion H; subst. rewrite sget_sset_same, E. eexists. split; [reflexivity|].
    intro c2. apply sset_sset.
  - destruct (rev es) as [|e before]; [discriminate|]. intro H. inversion H; subst.
    rewrite sget_sset_same, E, rev_app_distr. cbn [rev app]. rewrite rev_involutive.
    eexists. split; [reflexivity|]. intro c2. apply sset_sset.
  - intro H. inversion H; subst. rewrite (sget_spush_same _ _ _ E). eexists. split; [reflexivity|].
    intro c2. apply (sset_spush _ _ _ _ E).
Qed.

Lemma at_path_lift p f t :
  at_path p f t = rbind (at_path_x p (lift f) t) (fun cx => ROk (fst cx)).
Proof.
  revert t. induction p as [|k p' IH]; intro t.
  - cbn [at_path at_path_x]. unfold lift. destruct (f t); reflexivity.
  - rewrite at_path_cons, at_path_x_cons. destruct (enter k t) as [[c w]|]; [|reflexivity].
    rewrite IH. destruct (at_path_x p' (lift f) c) as [[c1 x]| |]; reflexivity.
Qed.

Lemma at_path_x_app {X} p q (f : stree -> res (stree * X)) t :
  at_path_x (p ++ q) f t = at_path_x p (at_path_x q f) t.
Proof.
  revert t. induction p as [|k p' IH]; intro t; [reflexivity|]. cbn [app]. rewrite !at_path_x_cons.
  destruct (enter k t) as [[c w]|]; [rewrite IH|]; reflexivity.
Qed.

(* second walk along the same path: it meets what the first one left *)
Lemma at_path_x_comp {X Y} p (F : stree -> res (stree * X)) (G : X -> stree -> res (stree * Y)) T T1 x :
  at_path_x p F T = ROk (T1, x) ->
  at_path_x p (G x) T1 = at_path_x p (fun t => rbind (F t) (fun tx => G (snd tx) (fst tx))) T.
Proof.
  revert T T1. induction p as [|k p' IH]; intros T T1 H.
  - cbn [at_path_x] in *. rewrite H. reflexivity.
  - rewrite at_path_x_cons in H. destruct (enter k T) as [[c w]|] eqn:E; [|discriminate].
    destruct (at_path_x p' F c) as [[c1 x1]| |] eqn:E1; cbn [rbind fst snd] in H; inversion H; subst.
    destruct (enter_put k T c w c1 E) as (w1 & E' & Hw). rewrite !at_path_x_cons, E, E', (IH _ _ E1).
    apply rbind_ext. intros [c2 y]. cbn [fst snd]. rewrite Hw. reflexivity.
Qed.

(* extensionality, relative to a predicate that holds along every walk *)
Definition walk_closed (P : stree -> Prop) : Prop :=
  P [] /\
  (forall t k kd c, P t -> sget t k = Some (NTab kd c) -> P c) /\
  (forall t k es e before, P t -> sget t k = Some (NAot es) -> rev es = e :: before -> P e).

Lemma enter_closed (P : stree -> Prop) k t c w : walk_closed P -> P t -> enter k t = Some (c, w) -> P c.
Proof.
  intros (P0 & Pt & Pa) Ht. unfold enter. destruct (sget t k) as [[v|kd c0|es]|] eqn:E.
  - discriminate.
  - intro H. inversion H; subst. eapply Pt; eassumption.
  - destruct (rev es) as [|e before] eqn:Er; [discriminate|]. intro H. inversion H; subst. eapply Pa; eassumption.
  - intro H. inversion H; subst. exact P0.
Qed.

Lemma at_path_x_ext {X} (P : stree -> Prop) p (F F' : stree -> res (stree * X)) T :
  walk_closed P -> P T -> (forall t, P t -> F t = F' t) -> at_path_x p F T = at_path_x p F' T.
Proof.
  intros HP HT HF. revert T HT. induction p as [|k p' IH]; intros T HT; [apply HF; exact HT|].
  rewrite !at_path_x_cons. destruct (enter k T) as [[c w]|] eqn:E; [|reflexivity].
  rewrite (IH c (enter_closed P _ _ _ _ HP HT E)). reflexivity.
Qed.

Lemma walk_closed_true : walk_closed (fun _ => True).
Proof. repeat split. Qed.

Lemma walk_closed_swf : walk_closed (fun t => swf_tree t = true).
Proof.
  split; [reflexivity|]. split.
  - intros t k kd c Ht E. pose proof (swf_sget _ _ _ Ht E) as H. rewrite swf_node_tab in H. exact H.
  - intros t k es e before Ht E Er. pose proof (swf_sget _ _ _ Ht E) as H.
    destruct (swf_aot_last _ _ _ H Er) as [H1 _]. exact H1.
Qed.

(* status (ok / invalid / undecided) only depends on the status at the addressed table *)
Definition status {A} (r : res A) : res unit :=
  match r with ROk _ => ROk tt | RInvalid => RInvalid | RUndecided => RUndecided end.

Lemma at_path_x_status {X Y} (P : stree -> Prop) p (F : stree -> res (stree * X)) (F' : stree -> res (stree * Y)) T :
  walk_closed P -> P T -> (forall t, P t -> status (F t) = status (F' t)) ->
  status (at_path_x p F T) = status (at_path_x p F' T).
Proof.
  intros HP HT HF. revert T HT. induction p as [|k p' IH]; intros T HT; [apply HF; exact HT|].
  rewrite !at_path_x_cons. destruct (enter k T) as [[c w]|] eqn:E; [|reflexivity].
  specialize (IH c (enter_closed P _ _ _ _ HP HT E)).
  destruct (at_path_x p' F c) as [[? ?]| |], (at_path_x p' F' c) as [[? ?]| |]; cbn in IH |- *; congruence.
Qed.

(* An invariant of trees that every walk hands down to the table it addresses, and that holds
   again of each table on the way back up once it holds of the changed table below. *)
Definition walk_inv (I : stree -> Prop) : Prop :=
  walk_closed I /\
  (forall t k kd c, I t -> sget t k = None -> I c -> I (spush t k (NTab kd c))) /\
  (forall t k kd c c', I t -> sget t k = Some (NTab kd c) -> I c' -> I (sset t k (NTab kd c'))) /\
  (forall t k es e before e', I t -> sget t k = Some (NAot es) -> rev es = e :: before -> I e' ->
                              I (sset t k (NAot (rev before ++ [e'])))).

Lemma enter_inv (I : stree -> Prop) k t c w c' :
  walk_inv I -> I t -> enter k t = Some (c, w) -> I c' -> I (w c').
Proof.
  intros (_ & Ipush & Itab & Iaot) Ht. unfold enter. destruct (sget t k) as [[v|kd c0|es]|] eqn:E.
  - discriminate.
  - intros H Hc. inversion H; subst. eapply Itab; eassumption.
  - destruct (rev es) as [|e before] eqn:Er; [discriminate|]. intros H Hc. inversion H; subst. eapply Iaot; eassumption.
  - intros H Hc. inversion H; subst. apply Ipush; assumption.
Qed.

(* such an invariant is preserved; properties of the output come from the addressed table *)
Lemma at_path_x_inv {X} (I : stree -> Prop) (Q : X -> Prop) p (F : stree -> res (stree * X)) T T' x :
  walk_inv I -> I T ->
  (forall t t' y, I t -> F t = ROk (t', y) -> I t' /\ Q y) ->
  at_path_x p F T = ROk (T', x) -> I T' /\ Q x.
Proof.
  intros HI HT HF. revert T T' HT. induction p as [|k p' IH]; intros T T' HT H.
  - eapply HF; eassumption.
  - rewrite at_path_x_cons in H. destruct (enter k T) as [[c w]|] eqn:E; [|discriminate].
    destruct (at_path_x p' F c) as [[c1 x1]| |] eqn:E1; cbn [rbind fst snd] in H; inversion H; subst.
    destruct (IH _ _ (enter_closed I _ _ _ _ (proj1 HI) HT E) E1) as [H1 H2].
    split; [exact (enter_inv I _ _ _ _ _ HI HT E H1) | exact H2].
Qed.

Lemma at_path_inv (J : stree -> Prop) p (f : stree -> res stree) T T' :
  walk_inv J -> J T -> (forall t t', J t -> f t = ROk t' -> J t') -> at_path p f T = ROk T' -> J T'.
Proof.
  intros HI HT Hf H. rewrite at_path_lift in H.
  destruct (at_path_x p (lift f) T) as [[T1 []]| |] eqn:E; cbn [rbind fst] in H; inversion H; subst.
  refine (proj1 (at_path_x_inv J (fun _ => True) p (lift f) T T' tt HI HT _ E)).
  intros t t' y Ht Hl. split; [exact (Hf t t' Ht (lift_ok f t t' y Hl)) | exact I].
Qed.

Lemma walk_inv_swf : walk_inv (fun t => swf_tree t = true).
Proof.
  split; [exact walk_closed_swf|]. split; [|split].
  - intros t k kd c Ht E Hc. apply swf_spush; [exact Ht | rewrite swf_node_tab; exact Hc | exact E].
  - intros t k kd c c' Ht _ Hc. apply swf_sset; [exact Ht | rewrite swf_node_tab; exact Hc].
  - intros t k es e before e' Ht E Er He. destruct (swf_aot_last _ _ _ (swf_sget _ _ _ Ht E) Er) as [_ Hb].
    apply swf_sset; [exact Ht | apply swf_aot_snoc; assumption].
Qed.

(* ---- induction on nodes; what the leaves of a tree satisfy --------------------------------- *)
(* a definition, not a lemma: node_ind' below is accepted because its recursive calls can be seen
   through it *)
Definition Forall_all {A} (R : A -> Prop) (f : forall a, R a) : forall l, Forall R l :=
  fix go l := match l with [] => Forall_nil R | a :: tl => Forall_cons a (f a) (go tl) end.

Section NodeInd.
  Variable Q : node -> Prop.
  Hypothesis HV : forall v, Q (NVal v).
  Hypothesis HT : forall kd items, Forall (fun kn => Q (snd kn)) items -> Q (NTab kd items).
  Hypothesis HA : forall es, Forall (Forall (fun kn => Q (snd kn))) es -> Q (NAot es).

  Fixpoint node_ind' (n : node) : Q n :=
    match n with
    | NVal v => HV v
    | NTab kd items => HT kd items (Forall_all _ (fun kn => node_ind' (snd kn)) items)
    | NAot es => HA es (Forall_all _ (Forall_all _ (fun kn => node_ind' (snd kn))) es)
    end.
End NodeInd.

Section Leaves.
Variable P : V -> Prop.

Inductive leaves : node -> Prop :=
| leaves_val v : P v -> leaves (NVal v)
| leaves_tab kd items : Forall (fun kn => leaves (snd kn)) items -> leaves (NTab kd items)
| leaves_aot es : Forall (Forall (fun kn => leaves (snd kn))) es -> leaves (NAot es).

Definition tleaves (t : stree) : Prop := Forall (fun kn => leaves (snd kn)) t.

Lemma tleaves_sget t k n : tleaves t -> sget t k = Some n -> leaves n.
Proof.
  induction 1 as [|[k' x] tl Hx _ IH]; cbn [sget]; [discriminate|].
  destruct (bytes_eqb k' k); [intro E; inversion E; subst; exact Hx | exact IH].
Qed.

Lemma tleaves_sget_tab t k kd c : tleaves t -> sget t k = Some (NTab kd c) -> tleaves c.
Proof. intros Ht E. pose proof (tleaves_sget _ _ _ Ht E) as H. inversion H; assumption. Qed.

Lemma tleaves_sget_aot t k es : tleaves t -> sget t k = Some (NAot es) -> Forall tleaves es.
Proof. intros Ht E. pose proof (tleaves_sget _ _ _ Ht E) as H. inversion H; assumption. Qed.

Lemma tleaves_sset t k n : tleaves t -> leaves n -> tleaves (sset t k n).
Proof.
  intros Ht Hn. induction Ht as [|[k' x] tl Hx Htl IH]; cbn [sset]; [constructor|].
  destruct (bytes_eqb k' k); constructor; assumption.
Qed.

Lemma tleaves_spush t k n : tleaves t -> leaves n -> tleaves (spush t k n).
Proof. intros Ht Hn. apply Forall_app. split; [exact Ht | repeat constructor; exact Hn]. Qed.

Lemma tleaves_sremove t k : tleaves t -> tleaves (sremove t k).
Proof.
  induction 1 as [|[k' x] tl Hx Htl IH]; cbn [sremove]; [constructor|].
  destruct (bytes_eqb k' k); [exact Htl | constructor; assumption].
Qed.

Lemma walk_inv_leaves : walk_inv tleaves.
Proof.
  split; [split; [constructor | split]|split; [|split]].
  - intros t k kd c. apply tleaves_sget_tab.
  - intros t k es e before Ht E Er. pose proof (tleaves_sget_aot _ _ _ Ht E) as H.
    apply rev_cons_eq in Er. subst es. apply Forall_app in H as [_ H]. inversion H; assumption.
  - intros t k kd c Ht _ Hc. apply tleaves_spush; [exact Ht | constructor; exact Hc].
  - intros t k kd c c' Ht _ Hc. apply tleaves_sset; [exact Ht | constructor; exact Hc].
  - intros t k es e before e' Ht E Er He. pose proof (tleaves_sget_aot _ _ _ Ht E) as H.
    apply rev_cons_eq in Er. subst es. apply Forall_app in H as [Hb _].
    apply tleaves_sset; [exact Ht | constructor]. apply Forall_app. split; [exact Hb | repeat constructor; exact He].
Qed.

Lemma def_table_leaves k t t' : tleaves t -> def_table k t = ROk t' -> tleaves t'.
Proof.
  unfold def_table. intros Ht H. destruct (sget t k) as [[v|[| |] c|es]|] eqn:E; inversion H; subst.
  - apply tleaves_spush; [apply tleaves_sremove; exact Ht | constructor; eapply tleaves_sget_tab; eassumption].
  - apply tleaves_spush; [exact Ht | repeat constructor].
Qed.

Lemma def_elem_leaves k t t' : tleaves t -> def_elem k t = ROk t' -> tleaves t'.
Proof.
  unfold def_elem. intros Ht H. destruct (sget t k) as [[v|kd c|es]|] eqn:E; inversion H; subst.
  - apply tleaves_sset; [exact Ht | constructor]. apply Forall_app.
    split; [eapply tleaves_sget_aot; eassumption | repeat constructor].
  - apply tleaves_spush; [exact Ht | repeat constructor].
Qed.

End Leaves.

(* ---- the detached current section: plugging it back ---------------------------------------- *)
(* the tree with the section content C attached under key k of the addressed parent:
   as a new [header] table at the end (k must be free), or as the newest element of the
   array of tables k *)
Definition plug (arr : bool) (k : bytes) (C : stree) (par : stree) : res (stree * unit) :=
  if arr then
    match sget par k with
    | Some (NAot es) => ROk (sset par k (NAot (es ++ [C])), tt)
    | _ => RInvalid
    end
  else
    match sget par k with
    | None => ROk (spush par k (NTab KHeader C), tt)
    | _ => RInvalid
    end.

(* addressing the plugged section and changing it = plugging the changed section *)
Lemma plug_then_walk {Y} arr kk (G : stree -> res (stree * Y)) C pre Rt T :
  at_path_x pre (plug arr kk C) Rt = ROk (T, tt) ->
  at_path_x (pre ++ [kk]) G T =
  rbind (G C) (fun cy => rbind (at_path_x pre (plug arr kk (fst cy)) Rt) (fun tx => ROk (fst tx, snd cy))).
Proof.
  revert Rt T. induction pre as [|k pre' IH]; intros Rt T H; cbn [app].
  - cbn [at_path_x] in *. unfold plug in *. destruct arr.
    + destruct (sget Rt kk) as [[v|kd c|es]|] eqn:E; try discriminate. inversion H; subst.
      rewrite sget_sset_same, E. rewrite rev_app_distr. cbn [rev app]. rewrite rev_involutive.
      destruct (G C) as [[C' y]| |]; cbn [rbind fst snd]; [rewrite sset_sset|..]; reflexivity.
    + destruct (sget Rt kk) eqn:E; try discriminate. inversion H; subst.
      rewrite (sget_spush_same _ _ _ E).
      destruct (G C) as [[C' y]| |]; cbn [rbind fst snd]; [rewrite (sset_spush _ _ _ _ E)|..]; reflexivity.
  - rewrite at_path_x_cons in H. destruct (enter k Rt) as [[c w]|] eqn:E; [|discriminate].
    destruct (at_path_x pre' (plug arr kk C) c) as [[c1 []]| |] eqn:E1; cbn [rbind fst snd] in H; inversion H; subst.
    destruct (enter_put k Rt c w c1 E) as (w1 & E' & Hw). rewrite at_path_x_cons, E', (IH _ _ E1).
    destruct (G C) as [[C' y]| |]; cbn [rbind fst snd]; try reflexivity.
    rewrite at_path_x_cons, E.
    destruct (at_path_x pre' (plug arr kk C') c) as [[c2 []]| |]; cbn [rbind fst snd]; [rewrite Hw|..]; reflexivity.
Qed.

(* whether the plug succeeds does not depend on what is plugged *)
Lemma plug_any arr kk C C' pre Rt T :
  at_path_x pre (plug arr kk C) Rt = ROk (T, tt) ->
  exists T', at_path_x pre (plug arr kk C') Rt = ROk (T', tt).
Proof.
  intro H.
  assert (Hs : status (at_path_x pre (plug arr kk C) Rt) = status (at_path_x pre (plug arr kk C') Rt)).
  { apply (at_path_x_status (fun _ => True)); [exact walk_closed_true | exact I|]. intros t _. unfold plug.
    destruct arr; destruct (sget t kk) as [[v|kd c|es]|]; reflexivity. }
  rewrite H in Hs. destruct (at_path_x pre (plug arr kk C') Rt) as [[T' []]| |]; [|discriminate..].
  exists T'. reflexivity.
Qed.

(* ---- headers, split the way the code does them: look up / take out, then plug ------------- *)
Definition take (k : bytes) (par : stree) : res (stree * option stree) :=
  match sget par k with
  | None => ROk (par, None)
  | Some (NTab KSuper c) => ROk (sremove par k, Some c)
  | Some _ => RInvalid
  end.

Definition mk_aot (k : bytes) (par : stree) : res (stree * unit) :=
  match sget par k with
  | None => ROk (spush par k (NAot []), tt)
  | Some (NAot _) => ROk (par, tt)
  | Some _ => RInvalid
  end.

Definition odflt (o : option stree) : stree := match o with Some c => c | None => [] end.

Lemma take_plug_def_table k t :
  swf_tree t = true ->
  rbind (take k t) (fun tx => plug false k (odflt (snd tx)) (fst tx)) = lift (def_table k) t.
Proof.
  intro Ht. unfold take, lift, def_table, plug.
  destruct (sget t k) as [[v|[| |] c|es]|] eqn:E; cbn [rbind fst snd odflt]; try reflexivity.
  - destruct (swf_sremove t k Ht) as [_ Hr]. rewrite Hr. reflexivity.
  - rewrite E. reflexivity.
Qed.

Lemma mk_aot_plug_def_elem k t :
  rbind (mk_aot k t) (fun tx => plug true k [] (fst tx)) = lift (def_elem k) t.
Proof.
  unfold mk_aot, lift, def_elem, plug.
  destruct (sget t k) as [[v|kd c|es]|] eqn:E; cbn [rbind fst snd]; try reflexivity.
  - rewrite E. reflexivity.
  - rewrite (sget_spush_same _ _ _ E). rewrite (sset_spush _ _ _ _ E). reflexivity.
Qed.

Lemma take_status k t : status (take k t) = status (lift (def_table k) t).
Proof.
  unfold take, lift, def_table. destruct (sget t k) as [[v|[| |] c|es]|]; reflexivity.
Qed.

Lemma mk_aot_status k t : status (mk_aot k t) = status (lift (def_elem k) t).
Proof.
  unfold mk_aot, lift, def_elem. destruct (sget t k) as [[v|kd c|es]|]; reflexivity.
Qed.

End SpecAlg.
