(* Proofs/NoPanicLex.v — C04, part 2: the lexical parsers (trivia, strings, date-times, numbers,
   keys) are mono, make progress where a loop needs it, and are safe on EVERY input (no
   hypothesis, not even UTF-8 validity).  Discharges the panic sites
     P_out_of_fuel / P_repeat_no_progress   in every lexical loop,
     P_unchecked_utf8 1 2 3 10-17 20 30     (the bytes handed to from_utf8_unchecked are ASCII; the
                                             byte classes are identified with the ABNF ones through
                                             Proofs/ConstsOk.v, so widening a class in the source
                                             breaks these proofs),
     P_expect_digits, P_unreachable_sign, P_other 1, P_key_path_empty (key.rs). *)
From TV Require Import Base.Prelude Base.Utf8 Base.Winnow Gen.Consts Spec.Abnf.
From TV Require Import Model.Trivia Model.Strings Model.Datetime Model.Numbers Model.Tree Model.Parse.
From TV Require Import Proofs.ConstsOk Proofs.NoPanicBase.
Require Import Lia ZifyBool ZifyN ZifyNat.
From TV Require Import Base.ListFacts.

(* ---- parsers that never succeed ------------------------------------------------------------------ *)
Lemma monoC_const_cut C {A} e j : monoC C (fun _ : input => @Cut A e j).
Proof. intros i a i' H. discriminate. Qed.
Lemma progress_const_cut {A} e j : progress (fun _ : input => @Cut A e j).
Proof. intros i a i' H. discriminate. Qed.
Lemma safe_const_cut P {A} e j : safe_on P (fun _ : input => @Cut A e j).
Proof. intros i _. exact I. Qed.
Lemma valP_const_cut {A} (V : A -> Prop) e j : valP V (fun _ : input => @Cut A e j).
Proof. intros i a i' H. discriminate. Qed.
Lemma monoC_const_panic C {A} s : monoC C (fun _ : input => @Panic A s).
Proof. intros i a i' H. discriminate. Qed.
Lemma progress_const_panic {A} s : progress (fun _ : input => @Panic A s).
Proof. intros i a i' H. discriminate. Qed.
Lemma valP_const_panic {A} (V : A -> Prop) s : valP V (fun _ : input => @Panic A s).
Proof. intros i a i' H. discriminate. Qed.
#[export] Hint Resolve monoC_const_cut progress_const_cut safe_const_cut monoC_const_panic progress_const_panic : np.

(* ---- the byte classes handed to from_utf8_unchecked are ASCII -------------------------------------- *)
Lemma WSCHAR_ascii b : in_class WSCHAR b = true -> ascii b = true.
Proof. rewrite WSCHAR_ok. unfold wschar, rng, ascii. lia. Qed.
Lemma HEXDIG_ascii b : in_class HEXDIG b = true -> ascii b = true.
Proof. rewrite HEXDIG_ok. unfold Abnf.hexdig, rng, ascii. lia. Qed.
Lemma DIGIT_ascii b : in_class DIGIT b = true -> ascii b = true.
Proof. rewrite DIGIT_ok. unfold Abnf.digit, rng, ascii. lia. Qed.
Lemma DT_DIGIT_ascii b : in_class DT_DIGIT b = true -> ascii b = true.
Proof. rewrite DT_DIGIT_ok. unfold Abnf.digit, rng, ascii. lia. Qed.
Lemma DIGIT1_9_ascii b : in_class DIGIT1_9 b = true -> ascii b = true.
Proof. rewrite DIGIT1_9_ok. unfold Abnf.digit1_9, rng, ascii. lia. Qed.
Lemma DIGIT0_7_ascii b : in_class DIGIT0_7 b = true -> ascii b = true.
Proof. rewrite DIGIT0_7_ok. unfold Abnf.digit0_7, rng, ascii. lia. Qed.
Lemma DIGIT0_1_ascii b : in_class DIGIT0_1 b = true -> ascii b = true.
Proof. rewrite DIGIT0_1_ok. unfold Abnf.digit0_1, rng, ascii. lia. Qed.
Lemma UNQUOTED_CHAR_ascii b : in_class UNQUOTED_CHAR b = true -> ascii b = true.
Proof. rewrite UNQUOTED_CHAR_ok. unfold unquoted_key_char, rng, ascii. lia. Qed.
Lemma DT_DIGIT_is_digit b : in_class DT_DIGIT b = is_digit b.
Proof. rewrite DT_DIGIT_ok. reflexivity. Qed.

Lemma byte_eqb_sym_true a b : byte_eqb a b = true -> a = b.
Proof. apply byte_eqb_eq. Qed.

Definition is_sign (b : byte) : bool := byte_eqb b plus || byte_eqb b dash.
Lemma sign_ascii b : is_sign b = true -> ascii b = true.
Proof.
  unfold is_sign. intro H. apply orb_true_iff in H as [H|H]; apply byte_eqb_eq in H; subst; reflexivity.
Qed.
Lemma e_ascii b : byte_eqb b x65 || byte_eqb b x45 = true -> ascii b = true.
Proof. intro H. apply orb_true_iff in H as [H|H]; apply byte_eqb_eq in H; subst; reflexivity. Qed.

(* class-aware primitives (C = ascii) *)
#[export] Hint Resolve monoC_one_of monoC_byte_ monoC_lit monoC_take_while
  WSCHAR_ascii HEXDIG_ascii DIGIT_ascii DT_DIGIT_ascii DIGIT1_9_ascii DIGIT0_7_ascii DIGIT0_1_ascii
  UNQUOTED_CHAR_ascii sign_ascii e_ascii : np.
#[export] Hint Extern 1 (ascii _ = true) => reflexivity : np.
#[export] Hint Extern 1 (anyb _ = true) => reflexivity : np.
#[export] Hint Extern 1 (forallb _ _ = true) => reflexivity : np.

(* ============================== trivia.rs ============================================================ *)
Lemma ws_mono : mono ws. Proof. unfold ws. np. Qed.
Lemma ws_safe : safe ws. Proof. unfold ws, take_while0. np. Qed.
Lemma comment_mono : mono comment. Proof. unfold comment. np. Qed.
Lemma comment_safe : safe comment. Proof. unfold comment. np. Qed.
Lemma comment_progress : progress comment. Proof. unfold comment. np. Qed.
Lemma newline_mono : mono newline. Proof. unfold newline. np. Qed.
Lemma newline_safe : safe newline. Proof. unfold newline. np. Qed.
Lemma newline_progress : progress newline. Proof. unfold newline. np. Qed.
#[export] Hint Resolve ws_mono ws_safe comment_mono comment_safe comment_progress
  newline_mono newline_safe newline_progress : np.

Lemma ws_newline_mono : mono ws_newline. Proof. unfold ws_newline. np. Qed.
Lemma ws_newline_safe : safe ws_newline. Proof. unfold ws_newline. np. Qed.
#[export] Hint Resolve ws_newline_mono ws_newline_safe : np.
Lemma ws_newlines_mono : mono ws_newlines. Proof. unfold ws_newlines. np. Qed.
Lemma ws_newlines_safe : safe ws_newlines. Proof. unfold ws_newlines. np. Qed.
Lemma ws_newlines_progress : progress ws_newlines. Proof. unfold ws_newlines. np. Qed.
#[export] Hint Resolve ws_newlines_mono ws_newlines_safe ws_newlines_progress : np.

(* the hand-written loop of ws_comment_newline *)
Definition wscn_step1 : parser unit := comment ;;; context newline.
Lemma wscn_step1_mono : mono wscn_step1. Proof. unfold wscn_step1. np. Qed.
Lemma wscn_step1_safe : safe wscn_step1. Proof. unfold wscn_step1. np. Qed.
Lemma wscn_step1_progress : progress wscn_step1. Proof. unfold wscn_step1. np. Qed.

Lemma wscn_f_mono : forall fuel start i a i', ws_comment_newline_f fuel start i = Ok a i' -> ext anyb i i'.
Proof.
  induction fuel as [|f IH]; intros start i a i' H; [discriminate|]. cbn [ws_comment_newline_f] in H.
  destruct (ws i) as [w i1|? ?|? ?|?] eqn:E; try discriminate. apply ws_mono in E.
  assert (St : forall p : parser unit, mono p ->
            match p i1 with
            | Ok _ i2 => if (pos i2 =? start)%N then Ok tt i2 else ws_comment_newline_f f (pos i2) i2
            | Bt e i' => Bt e i' | Cut e i' => Cut e i' | Panic s => Panic s
            end = Ok a i' -> ext anyb i i').
  { intros p Hp H1. destruct (p i1) as [u i2|? ?|? ?|?] eqn:E1; try discriminate. apply Hp in E1.
    eapply ext_trans; [exact E|]. eapply ext_trans; [exact E1|].
    destruct (pos i2 =? start)%N; [inversion H1; subst; apply ext_refl | eapply IH, H1]. }
  destruct (rest i1) as [|b r] eqn:R.
  - inversion H; subst. exact E.
  - destruct (byte_eqb b x23); [apply (St _ wscn_step1_mono H)|].
    destruct (byte_eqb b x0a); [apply (St _ newline_mono H)|].
    destruct (byte_eqb b x0d); [apply (St _ newline_mono H)|].
    inversion H; subst. exact E.
Qed.

(* termination of the loop: every iteration that continues has consumed the `#`, LF or CR *)
Lemma wscn_f_safe : forall fuel start i, length (rest i) < fuel -> nopanic (ws_comment_newline_f fuel start i).
Proof.
  induction fuel as [|f IH]; intros start i L; [lia|]. cbn [ws_comment_newline_f].
  pose proof (ws_safe i I) as S0. destruct (ws i) as [w i1|? ?|? ?|?] eqn:E; auto.
  apply ws_mono, ext_len in E.
  assert (St : forall p : parser unit, safe p -> progress p ->
            nopanic match p i1 with
            | Ok _ i2 => if (pos i2 =? start)%N then Ok tt i2 else ws_comment_newline_f f (pos i2) i2
            | Bt e i' => Bt e i' | Cut e i' => Cut e i' | Panic s => Panic s
            end).
  { intros p Hs Hg. pose proof (Hs i1 I) as S1. destruct (p i1) as [u i2|? ?|? ?|?] eqn:E1; auto.
    apply Hg in E1. destruct (pos i2 =? start)%N; [exact I|]. apply IH. lia. }
  destruct (rest i1) as [|b r] eqn:R; [exact I|].
  destruct (byte_eqb b x23); [apply (St _ wscn_step1_safe wscn_step1_progress)|].
  destruct (byte_eqb b x0a); [apply (St _ newline_safe newline_progress)|].
  destruct (byte_eqb b x0d); [apply (St _ newline_safe newline_progress)|]. exact I.
Qed.

Lemma ws_comment_newline_mono : mono ws_comment_newline.
Proof. intros i a i' H. eapply wscn_f_mono, H. Qed.
Lemma ws_comment_newline_safe : safe ws_comment_newline.
Proof. intros i _. unfold ws_comment_newline. apply wscn_f_safe. lia. Qed.
#[export] Hint Resolve ws_comment_newline_mono ws_comment_newline_safe : np.

Lemma line_ending_mono : mono line_ending. Proof. unfold line_ending. np. Qed.
Lemma line_ending_safe : safe line_ending. Proof. unfold line_ending. np. Qed.
#[export] Hint Resolve line_ending_mono line_ending_safe : np.
Lemma line_trailing_mono : mono line_trailing. Proof. unfold line_trailing. np. Qed.
Lemma line_trailing_safe : safe line_trailing. Proof. unfold line_trailing. np. Qed.
#[export] Hint Resolve line_trailing_mono line_trailing_safe : np.

(* ============================== strings.rs =========================================================== *)
Section FromUtf8.
  Variable C : byte -> bool.
  Variable P : input -> Prop.
  Lemma monoC_from_utf8 p : monoC C p -> monoC C (from_utf8 p).
  Proof. unfold from_utf8. np. Qed.
  Lemma progress_from_utf8 p : progress p -> progress (from_utf8 p).
  Proof. unfold from_utf8. np. Qed.
  Lemma safe_from_utf8 p : safe_on P p -> safe_on P (from_utf8 p).
  Proof.
    intro H. unfold from_utf8. apply safe_try_map_total; [exact H|].
    intros a s. destruct (utf8_valid_b a); discriminate.
  Qed.
End FromUtf8.
#[export] Hint Resolve monoC_from_utf8 progress_from_utf8 safe_from_utf8 : np.

Lemma hexescape_mono n : mono (hexescape n). Proof. unfold hexescape. np. Qed.
Lemma hexescape_safe n : safe (hexescape n).
Proof.
  unfold hexescape. apply safe_try_map_total; [|intros a s; destruct (is_scalar a); discriminate].
  apply safe_verify_map. apply safe_unchecked; [np|].
  eapply valP_weaken; [|apply valP_verify, valP_take_while]. intros a ((H & _) & _).
  eapply forallb_impl; [|exact H]. np.
Qed.
#[export] Hint Resolve hexescape_mono hexescape_safe : np.

Lemma escape_seq_char_mono : mono escape_seq_char. Proof. unfold escape_seq_char. np. Qed.
Lemma escape_seq_char_safe : safe escape_seq_char. Proof. unfold escape_seq_char. np. Qed.
#[export] Hint Resolve escape_seq_char_mono escape_seq_char_safe : np.
Lemma escaped_mono : mono escaped. Proof. unfold escaped. np. Qed.
Lemma escaped_safe : safe escaped. Proof. unfold escaped. np. Qed.
Lemma escaped_progress : progress escaped. Proof. unfold escaped. np. Qed.
#[export] Hint Resolve escaped_mono escaped_safe escaped_progress : np.
Lemma basic_chars_mono : mono basic_chars. Proof. unfold basic_chars. np. Qed.
Lemma basic_chars_safe : safe basic_chars. Proof. unfold basic_chars. np. Qed.
Lemma basic_chars_progress : progress basic_chars. Proof. unfold basic_chars. np. Qed.
#[export] Hint Resolve basic_chars_mono basic_chars_safe basic_chars_progress : np.

(* the `while let Some(c) = opt(p)` loops *)
Lemma chunks_f_mono C (p : parser bytes) : monoC C p ->
  forall fuel acc i l i', chunks_f fuel p acc i = Ok l i' -> ext C i i'.
Proof.
  intros Hp. induction fuel as [|f IH]; intros acc i l i' H; cbn [chunks_f] in H; [discriminate|].
  destruct (p i) as [c i1|? ?|? ?|?] eqn:E; try discriminate.
  - destruct (Nat.eqb _ _); [discriminate|]. eapply ext_trans; [eapply Hp, E|eapply IH, H].
  - inversion H; subst. apply ext_refl.
Qed.
Lemma chunks_f_safe P (p : parser bytes) : closed P -> mono p -> progress p -> safe_on P p ->
  forall fuel acc i, P i -> length (rest i) < fuel -> nopanic (chunks_f fuel p acc i).
Proof.
  intros Pc Hm Hg Hs. induction fuel as [|f IH]; intros acc i Hi Hl; [lia|]. cbn [chunks_f].
  specialize (Hs i Hi). destruct (p i) as [c i1|? ?|? ?|?] eqn:E; auto. pose proof (Hg _ _ _ E) as L.
  destruct (Nat.eqb _ _) eqn:Q; [apply Nat.eqb_eq in Q; lia|].
  apply IH; [eapply Pc; eauto; lia | lia].
Qed.
Lemma monoC_chunks C p : monoC C p -> monoC C (chunks p).
Proof. intros Hp i l i' H. eapply (chunks_f_mono C p Hp), H. Qed.
Lemma safe_chunks P p : closed P -> mono p -> progress p -> safe_on P p -> safe_on P (chunks p).
Proof. intros Pc Hm Hg Hs i Hi. unfold chunks. apply (chunks_f_safe P); auto. Qed.
#[export] Hint Resolve monoC_chunks safe_chunks : np.

Lemma basic_string_mono : mono basic_string. Proof. unfold basic_string. np. Qed.
Lemma basic_string_safe : safe basic_string. Proof. unfold basic_string. np. Qed.
Lemma basic_string_progress : progress basic_string. Proof. unfold basic_string. np. Qed.
#[export] Hint Resolve basic_string_mono basic_string_safe basic_string_progress : np.

Lemma mlb_escaped_nl_mono : mono mlb_escaped_nl. Proof. unfold mlb_escaped_nl. np. Qed.
Lemma mlb_escaped_nl_safe : safe mlb_escaped_nl. Proof. unfold mlb_escaped_nl. np. Qed.
Lemma mlb_escaped_nl_progress : progress mlb_escaped_nl. Proof. unfold mlb_escaped_nl. np. Qed.
#[export] Hint Resolve mlb_escaped_nl_mono mlb_escaped_nl_safe mlb_escaped_nl_progress : np.
Lemma mlb_content_mono : mono mlb_content. Proof. unfold mlb_content. np. Qed.
Lemma mlb_content_safe : safe mlb_content. Proof. unfold mlb_content. np. Qed.
Lemma mlb_content_progress : progress mlb_content. Proof. unfold mlb_content. np. Qed.
#[export] Hint Resolve mlb_content_mono mlb_content_safe mlb_content_progress : np.

(* quotes2 is an `alt` of the two-quote and the one-quote reading *)
Lemma quotes2_alt q term :
  quotes2 q term = alt (unchecked_utf8 3 (terminated (lit [q; q]) (peek term)))
                       (unchecked_utf8 3 (terminated (lit [q]) (peek term))).
Proof. reflexivity. Qed.
Lemma quotes2_mono q term : mono (quotes2 q term).
Proof. rewrite quotes2_alt. np. Qed.
Lemma quotes2_progress q term : progress (quotes2 q term).
Proof. rewrite quotes2_alt. apply progress_alt; apply progress_unchecked, progress_terminated; np; apply progress_lit; discriminate. Qed.
Lemma quotes2_safe q term : ascii q = true -> safe term -> safe (quotes2 q term).
Proof.
  intros Hq Ht. rewrite quotes2_alt.
  apply safe_alt; (apply safe_unchecked; [np|]);
    (eapply valP_weaken; [|apply valP_terminated, valP_lit]); intros a ->; cbn [forallb]; rewrite Hq; reflexivity.
Qed.
#[export] Hint Resolve quotes2_mono quotes2_progress quotes2_safe : np.

Lemma opt_some_progress {A} (p : parser A) i a i' :
  progress p -> opt p i = Ok (Some a) i' -> length (rest i') < length (rest i).
Proof.
  intros Hg H. unfold opt in H. destruct (p i) as [x i1|? ?|? ?|?] eqn:E; try discriminate.
  inversion H; subst. eapply Hg, E.
Qed.

Definition mlb_q : parser bytes := quotes2 x22 (pvoid (none_of (byte_eqb x22))).
Lemma mlb_q_mono : mono mlb_q. Proof. unfold mlb_q. np. Qed.
Lemma mlb_q_safe : safe mlb_q. Proof. unfold mlb_q. np. Qed.
Lemma mlb_q_progress : progress mlb_q. Proof. unfold mlb_q. np. Qed.

Lemma mlb_quote_loop_mono : forall fuel acc i l i', mlb_quote_loop fuel acc i = Ok l i' -> ext anyb i i'.
Proof.
  induction fuel as [|f IH]; intros acc i l i' H; [discriminate|]. cbn [mlb_quote_loop] in H. fold mlb_q in H.
  destruct (opt mlb_q i) as [[qi|] i1|? ?|? ?|?] eqn:E1; try discriminate.
  - apply (monoC_opt anyb _ mlb_q_mono) in E1.
    destruct (opt mlb_content i1) as [[ci|] i2|? ?|? ?|?] eqn:E2; try discriminate.
    + apply (monoC_opt anyb _ mlb_content_mono) in E2.
      destruct (chunks mlb_content i2) as [more i3|? ?|? ?|?] eqn:E3; try discriminate.
      apply (monoC_chunks anyb _ mlb_content_mono) in E3. apply IH in H.
      eapply ext_trans; [exact E1|]. eapply ext_trans; [exact E2|]. eapply ext_trans; [exact E3|exact H].
    + apply (monoC_opt anyb _ mlb_content_mono) in E2. inversion H; subst.
      eapply ext_trans; [exact E1|exact E2].
  - apply (monoC_opt anyb _ mlb_q_mono) in E1. inversion H; subst. exact E1.
Qed.

(* termination: every iteration that continues has consumed one or two quotes *)
Lemma mlb_quote_loop_safe : forall fuel acc i, length (rest i) < fuel -> nopanic (mlb_quote_loop fuel acc i).
Proof.
  induction fuel as [|f IH]; intros acc i L; [lia|]. cbn [mlb_quote_loop]. fold mlb_q.
  pose proof (safe_opt anyi _ mlb_q_safe i I) as S1.
  destruct (opt mlb_q i) as [[qi|] i1|? ?|? ?|?] eqn:E1; auto.
  apply (opt_some_progress _ _ _ _ mlb_q_progress) in E1.
  pose proof (safe_opt anyi _ mlb_content_safe i1 I) as S2.
  destruct (opt mlb_content i1) as [[ci|] i2|? ?|? ?|?] eqn:E2; auto.
  apply (monoC_opt anyb _ mlb_content_mono), ext_len in E2.
  assert (S3 : nopanic (chunks mlb_content i2)) by (apply (safe_chunks anyi); np; exact I).
  destruct (chunks mlb_content i2) as [more i3|? ?|? ?|?] eqn:E3; auto.
  apply (monoC_chunks anyb _ mlb_content_mono), ext_len in E3. apply IH. lia.
Qed.

Definition mlb_quote_p (c : bytes) : parser bytes := fun j => mlb_quote_loop (S (length (rest j))) c j.
Lemma mlb_quote_p_mono c : mono (mlb_quote_p c).
Proof. intros i a i' H. eapply mlb_quote_loop_mono, H. Qed.
Lemma mlb_quote_p_safe c : safe (mlb_quote_p c).
Proof. intros i _. apply mlb_quote_loop_safe. lia. Qed.
#[export] Hint Resolve mlb_quote_p_mono mlb_quote_p_safe : np.

Lemma ml_basic_body_eq :
  ml_basic_body = (c <- chunks mlb_content ;;
                   c2 <- mlb_quote_p c ;;
                   q <- opt (quotes2 x22 (pvoid (lit ML_BASIC_STRING_DELIM))) ;;
                   ret (c2 ++ match q with Some qi => qi | None => [] end)).
Proof. reflexivity. Qed.
Lemma ml_basic_body_mono : mono ml_basic_body. Proof. rewrite ml_basic_body_eq. np. Qed.
Lemma ml_basic_body_safe : safe ml_basic_body. Proof. rewrite ml_basic_body_eq. np. Qed.
#[export] Hint Resolve ml_basic_body_mono ml_basic_body_safe : np.

Lemma delim_ne_b : ML_BASIC_STRING_DELIM <> []. Proof. discriminate. Qed.
Lemma delim_ne_l : ML_LITERAL_STRING_DELIM <> []. Proof. discriminate. Qed.
#[export] Hint Resolve progress_lit delim_ne_b delim_ne_l : np.

Lemma ml_basic_string_mono : mono ml_basic_string. Proof. unfold ml_basic_string. np. Qed.
Lemma ml_basic_string_safe : safe ml_basic_string. Proof. unfold ml_basic_string. np. Qed.
Lemma ml_basic_string_progress : progress ml_basic_string. Proof. unfold ml_basic_string. np. Qed.
#[export] Hint Resolve ml_basic_string_mono ml_basic_string_safe ml_basic_string_progress : np.

Lemma literal_string_mono : mono literal_string. Proof. unfold literal_string. np. Qed.
Lemma literal_string_safe : safe literal_string. Proof. unfold literal_string. np. Qed.
Lemma literal_string_progress : progress literal_string. Proof. unfold literal_string. np. Qed.
#[export] Hint Resolve literal_string_mono literal_string_safe literal_string_progress : np.

Lemma mll_content_mono : mono mll_content. Proof. unfold mll_content. np. Qed.
Lemma mll_content_safe : safe mll_content. Proof. unfold mll_content. np. Qed.
Lemma mll_content_progress : progress mll_content. Proof. unfold mll_content. np. Qed.
#[export] Hint Resolve mll_content_mono mll_content_safe mll_content_progress : np.

Lemma ml_literal_body_mono : mono ml_literal_body. Proof. unfold ml_literal_body. np. Qed.
Lemma ml_literal_body_safe : safe ml_literal_body. Proof. unfold ml_literal_body. np. Qed.
#[export] Hint Resolve ml_literal_body_mono ml_literal_body_safe : np.

Lemma ml_literal_string_mono : mono ml_literal_string. Proof. unfold ml_literal_string. np. Qed.
Lemma ml_literal_string_safe : safe ml_literal_string. Proof. unfold ml_literal_string. np. Qed.
Lemma ml_literal_string_progress : progress ml_literal_string. Proof. unfold ml_literal_string. np. Qed.
#[export] Hint Resolve ml_literal_string_mono ml_literal_string_safe ml_literal_string_progress : np.

Lemma string_mono : mono string_. Proof. unfold string_. np. Qed.
Lemma string_safe : safe string_. Proof. unfold string_. np. Qed.
Lemma string_progress : progress string_. Proof. unfold string_. np. Qed.
#[export] Hint Resolve string_mono string_safe string_progress : np.

(* ============================== datetime.rs ========================================================== *)
Lemma unsigned_digits_mono m n : mono (unsigned_digits m n). Proof. unfold unsigned_digits. np. Qed.
Lemma unsigned_digits_val m n :
  valP (fun a => forallb is_digit a = true /\ m <= length a /\ match n with Some n' => length a <= n' | None => True end)
       (unsigned_digits m n).
Proof.
  unfold unsigned_digits. apply valP_unchecked. eapply valP_weaken; [|apply valP_take_while].
  intros a (H & R). split; [|exact R]. eapply forallb_impl; [|exact H]. intros b Hb. rewrite <- DT_DIGIT_is_digit. exact Hb.
Qed.
Lemma is_digit_ascii b : is_digit b = true -> ascii b = true.
Proof. unfold is_digit, ascii. lia. Qed.
Lemma unsigned_digits_safe m n : safe (unsigned_digits m n). Proof. unfold unsigned_digits. np. Qed.
Lemma unsigned_digits_progress m n : 1 <= m -> progress (unsigned_digits m n).
Proof. intro H. unfold unsigned_digits. apply progress_unchecked, progress_take_while, H. Qed.
#[export] Hint Resolve unsigned_digits_mono unsigned_digits_safe unsigned_digits_progress : np.

Lemma digit_val_le b : is_digit b = true -> (digit_val b <= 9)%N.
Proof. unfold is_digit, digit_val. lia. Qed.

(* "4DIGIT should match u8/u16": the `expect`s in datetime.rs *)
Lemma parse_unsigned_4 s : forallb is_digit s = true -> length s = 4 -> parse_unsigned 16 s <> None.
Proof.
  intros H L. destruct s as [|a [|b [|c [|d [|]]]]]; try discriminate L.
  unfold parse_unsigned. rewrite H. cbn [forallb] in H.
  repeat (apply andb_true_iff in H as [?Hd H]); apply digit_val_le in Hd, Hd0, Hd1, Hd2.
  unfold dec_value; cbn [dec_value_acc]. change (2 ^ 16)%N with 65536%N.
  destruct (_ <? _)%N eqn:Q; [discriminate|]. lia.
Qed.
Lemma parse_unsigned_2 s : forallb is_digit s = true -> length s = 2 -> parse_unsigned 8 s <> None.
Proof.
  intros H L. destruct s as [|a [|b [|]]]; try discriminate L.
  unfold parse_unsigned. rewrite H. cbn [forallb] in H.
  repeat (apply andb_true_iff in H as [?Hd H]); apply digit_val_le in Hd, Hd0.
  unfold dec_value; cbn [dec_value_acc]. change (2 ^ 8)%N with 256%N.
  destruct (_ <? _)%N eqn:Q; [discriminate|]. lia.
Qed.

Lemma date_fullyear_mono : mono date_fullyear. Proof. unfold date_fullyear. np. Qed.
Lemma date_fullyear_progress : progress date_fullyear. Proof. unfold date_fullyear. np. Qed.
Lemma date_fullyear_safe : safe date_fullyear.
Proof.
  unfold date_fullyear. eapply safe_try_map; [np|apply unsigned_digits_val|].
  intros a (H & L1 & L2) s. pose proof (parse_unsigned_4 a H ltac:(lia)) as N.
  destruct (parse_unsigned 16 a); [discriminate|congruence].
Qed.
Lemma two_digit_field_mono lo hi : mono (two_digit_field lo hi). Proof. unfold two_digit_field. np. Qed.
Lemma two_digit_field_progress lo hi : progress (two_digit_field lo hi). Proof. unfold two_digit_field. np. Qed.
Lemma two_digit_field_safe lo hi : safe (two_digit_field lo hi).
Proof.
  unfold two_digit_field. eapply safe_try_map; [np|apply unsigned_digits_val|].
  intros a (H & L1 & L2) s. pose proof (parse_unsigned_2 a H ltac:(lia)) as N.
  destruct (parse_unsigned 8 a); [|congruence]. destruct (_ && _); discriminate.
Qed.
#[export] Hint Resolve date_fullyear_mono date_fullyear_progress date_fullyear_safe
  two_digit_field_mono two_digit_field_progress two_digit_field_safe : np.
#[export] Hint Unfold date_month date_mday time_hour time_minute time_second : np.

Definition full_date_day (y m : N) : parser date :=
  fun day_start =>
    (d <- cut_err date_mday ;;
     if (max_days DT_MAXDAYS m (is_leap_year y) <? d)%N
     then (fun _ => Cut (err_of OutOfRange) day_start)
     else ret (mkDate y m d)) day_start.
Definition full_date_tail (y : N) : parser date :=
  byte_ dash ;;; m <- cut_err date_month ;; cut_err (byte_ dash) ;;; full_date_day y m.
Lemma full_date_eq : full_date = (y <- date_fullyear ;; full_date_tail y).
Proof. reflexivity. Qed.
Lemma full_date_day_mono y m : mono (full_date_day y m).
Proof. unfold full_date_day, date_mday. refine (monoC_diag _ (fun j => _) _). intro j. np. Qed.
Lemma full_date_day_safe y m : safe (full_date_day y m).
Proof. unfold full_date_day, date_mday. refine (safe_diag _ (fun j => _) _). intro j. np. Qed.
#[export] Hint Resolve full_date_day_mono full_date_day_safe : np.
Lemma full_date_tail_mono y : mono (full_date_tail y).
Proof. unfold full_date_tail, date_month. np. Qed.
Lemma full_date_tail_safe y : safe (full_date_tail y).
Proof. unfold full_date_tail, date_month. np. Qed.
#[export] Hint Resolve full_date_tail_mono full_date_tail_safe : np.
Lemma full_date_mono : mono full_date. Proof. rewrite full_date_eq. np. Qed.
Lemma full_date_safe : safe full_date. Proof. rewrite full_date_eq. np. Qed.
Lemma full_date_progress : progress full_date. Proof. rewrite full_date_eq. np. Qed.
#[export] Hint Resolve full_date_mono full_date_safe full_date_progress : np.

Lemma secfrac_value_total repr s : secfrac_value repr <> TmPanic s.
Proof.
  unfold secfrac_value. destruct (parse_unsigned 32 _); [|discriminate].
  destruct (nth_error DT_SCALE _); [|discriminate]. destruct (_ <? _)%N; discriminate.
Qed.
Lemma time_secfrac_mono : mono time_secfrac. Proof. unfold time_secfrac. np. Qed.
Lemma time_secfrac_safe : safe time_secfrac.
Proof. unfold time_secfrac. apply safe_try_map_total; [np|]. intros a s. apply secfrac_value_total. Qed.
#[export] Hint Resolve time_secfrac_mono time_secfrac_safe : np.

Lemma partial_time_mono : mono partial_time. Proof. unfold partial_time, time_hour, time_minute, time_second. np. Qed.
Lemma partial_time_safe : safe partial_time. Proof. unfold partial_time, time_hour, time_minute, time_second. np. Qed.
Lemma partial_time_progress : progress partial_time. Proof. unfold partial_time, time_hour, time_minute, time_second. np. Qed.
#[export] Hint Resolve partial_time_mono partial_time_safe partial_time_progress : np.

(* time_offset: the sign byte came from one_of((b'+', b'-')), so `_ => unreachable!()` is unreachable *)
Lemma time_offset_mono : mono time_offset. Proof. unfold time_offset, time_hour, time_minute. np. Qed.
Lemma time_offset_safe : safe time_offset.
Proof.
  unfold time_offset, time_hour, time_minute. apply safe_context, safe_alt; [np|]. apply safe_pmap, safe_verify.
  eapply safe_bind_val; [np|np|np|apply valP_one_of|]. intros sign Hs. cbv beta in Hs.
  apply safe_bind; [np|np|np|]. intros [h mi].
  destruct (byte_eqb sign plus) eqn:E1; [np|]. destruct (byte_eqb sign dash) eqn:E2; [np|]. discriminate Hs.
Qed.
#[export] Hint Resolve time_offset_mono time_offset_safe : np.

Lemma time_delim_mono : mono time_delim. Proof. unfold time_delim. np. Qed.
Lemma time_delim_safe : safe time_delim. Proof. unfold time_delim. np. Qed.
#[export] Hint Resolve time_delim_mono time_delim_safe : np.

Lemma date_time_mono : mono date_time. Proof. unfold date_time. np. Qed.
Lemma date_time_safe : safe date_time. Proof. unfold date_time. np. Qed.
Lemma date_time_progress : progress date_time. Proof. unfold date_time. np. Qed.
#[export] Hint Resolve date_time_mono date_time_safe date_time_progress : np.

(* ============================== numbers.rs =========================================================== *)
(* TRUE[0] / FALSE[0]: the constants are non-empty *)
Lemma bool_lit_mono l v : mono (bool_lit l v).
Proof. destruct l as [|c l]; unfold bool_lit; np. Qed.
Lemma bool_lit_safe l v : l <> [] -> safe (bool_lit l v).
Proof. intro H. destruct l as [|c l]; [congruence|]. unfold bool_lit. np. Qed.
Lemma true_mono : mono true_. Proof. apply bool_lit_mono. Qed.
Lemma false_mono : mono false_. Proof. apply bool_lit_mono. Qed.
Lemma true_safe : safe true_. Proof. apply bool_lit_safe. discriminate. Qed.
Lemma false_safe : safe false_. Proof. apply bool_lit_safe. discriminate. Qed.
#[export] Hint Resolve true_mono false_mono true_safe false_safe : np.

Lemma digit_monoC : monoC ascii digit. Proof. unfold digit. np. Qed.
Lemma digit_mono : mono digit. Proof. unfold digit. np. Qed.
Lemma digit_safe : safe digit. Proof. unfold digit. np. Qed.
Lemma digit_progress : progress digit. Proof. unfold digit. np. Qed.
Lemma hexdig_monoC : monoC ascii hexdig. Proof. unfold hexdig. np. Qed.
Lemma hexdig_mono : mono hexdig. Proof. unfold hexdig. np. Qed.
Lemma hexdig_safe : safe hexdig. Proof. unfold hexdig. np. Qed.
Lemma hexdig_progress : progress hexdig. Proof. unfold hexdig. np. Qed.
#[export] Hint Resolve digit_monoC digit_mono digit_safe digit_progress
  hexdig_monoC hexdig_mono hexdig_safe hexdig_progress : np.

Section DigitsUs.
  Variable C : byte -> bool.
  Variables first d : parser byte.
  Lemma digits_us_monoC : C underscore = true -> monoC C first -> monoC C d -> monoC C (digits_us first d).
  Proof. intros. unfold digits_us. np. Qed.
  Lemma digits_us_progress : progress first -> mono d -> progress (digits_us first d).
  Proof. intros. unfold digits_us. np. Qed.
  Lemma digits_us_safe : mono first -> mono d -> progress d -> safe first -> safe d -> safe (digits_us first d).
  Proof. intros. unfold digits_us. np. Qed.
End DigitsUs.
Lemma digits_us_mono first d : mono first -> mono d -> mono (digits_us first d).
Proof. apply digits_us_monoC. reflexivity. Qed.
#[export] Hint Resolve digits_us_monoC digits_us_mono digits_us_progress digits_us_safe : np.

(* the text recognised by dec_int is ASCII *)
Definition dec_int_body : parser unit :=
  opt (one_of (fun b => byte_eqb b plus || byte_eqb b dash)) ;;;
  (digits_us (one_of (in_class DIGIT1_9)) digit <|> pvoid digit).
Lemma dec_int_body_monoC : monoC ascii dec_int_body.
Proof. unfold dec_int_body. apply monoC_bind; [apply monoC_opt, monoC_one_of, sign_ascii|]. intros _. np. Qed.
Lemma dec_int_body_safe : safe dec_int_body. Proof. unfold dec_int_body. np. Qed.
Lemma dec_int_eq : dec_int = context (unchecked_utf8 10 (taken dec_int_body)).
Proof. reflexivity. Qed.
Lemma dec_int_monoC : monoC ascii dec_int.
Proof. rewrite dec_int_eq. apply monoC_context, monoC_unchecked, monoC_taken, dec_int_body_monoC. Qed.
Lemma dec_int_mono : mono dec_int. Proof. eapply monoC_mono, dec_int_monoC. Qed.
Lemma dec_int_safe : safe dec_int.
Proof. rewrite dec_int_eq. apply safe_context, safe_unchecked_taken; [apply dec_int_body_safe|apply dec_int_body_monoC]. Qed.
#[export] Hint Resolve dec_int_monoC dec_int_mono dec_int_safe : np.

Lemma prefixed_int_mono w prefix d : mono d -> mono (prefixed_int w prefix d).
Proof. intros. unfold prefixed_int. np. Qed.
Lemma prefixed_int_safe w prefix d :
  monoC ascii d -> progress d -> safe d -> safe (prefixed_int w prefix d).
Proof.
  intros Hc Hg Hs. pose proof (monoC_mono _ _ Hc) as Hm. unfold prefixed_int.
  apply safe_context, safe_unchecked; [np|]. apply valP_preceded, valP_taken. np.
Qed.
Lemma hex_int_mono : mono hex_int. Proof. apply prefixed_int_mono. np. Qed.
Lemma oct_int_mono : mono oct_int. Proof. apply prefixed_int_mono. np. Qed.
Lemma bin_int_mono : mono bin_int. Proof. apply prefixed_int_mono. np. Qed.
Lemma hex_int_safe : safe hex_int. Proof. apply prefixed_int_safe; np. Qed.
Lemma oct_int_safe : safe oct_int. Proof. apply prefixed_int_safe; np. Qed.
Lemma bin_int_safe : safe bin_int. Proof. apply prefixed_int_safe; np. Qed.
#[export] Hint Resolve hex_int_mono oct_int_mono bin_int_mono hex_int_safe oct_int_safe bin_int_safe : np.

Lemma int_of_total r s st : int_of r s <> TmPanic st.
Proof. unfold int_of. destruct (i64_from_str_radix r (remove_us s)); discriminate. Qed.

Definition dec_sub (s : bytes) : sub Z :=
  match int_of 10 s with TmOk z => SubOk z | TmErr c => SubCut (err_of c) | TmPanic st => SubPanic st end.
Lemma dec_sub_total s st : dec_sub s <> SubPanic st.
Proof. unfold dec_sub. pose proof (int_of_total 10 s) as H. destruct (int_of 10 s); try discriminate. exfalso. eapply H. reflexivity. Qed.

Lemma integer_cases i :
  integer i = cut_err (try_map (int_of 16) hex_int) i \/ integer i = cut_err (try_map (int_of 8) oct_int) i
  \/ integer i = cut_err (try_map (int_of 2) bin_int) i \/ integer i = and_then dec_int dec_sub i.
Proof.
  unfold integer. destruct (bytes_eqb _ _); [auto|]. destruct (bytes_eqb _ _); [auto|].
  destruct (bytes_eqb _ _); auto.
Qed.
Lemma integer_mono : mono integer.
Proof.
  intros i a i' H. destruct (integer_cases i) as [E|[E|[E|E]]]; rewrite E in H; revert H;
    match goal with |- ?p i = _ -> _ => assert (M : mono p) by np; apply M end.
Qed.
Lemma int_radix_safe r p : safe p -> safe (cut_err (try_map (int_of r) p)).
Proof. intro H. apply safe_cut_err, safe_try_map_total; [exact H|apply int_of_total]. Qed.
Lemma integer_safe : safe integer.
Proof.
  intros i _. destruct (integer_cases i) as [E|[E|[E|E]]]; rewrite E.
  - apply (int_radix_safe 16 _ hex_int_safe i I).
  - apply (int_radix_safe 8 _ oct_int_safe i I).
  - apply (int_radix_safe 2 _ bin_int_safe i I).
  - apply (safe_and_then anyi _ _ dec_int_safe dec_sub_total i I).
Qed.
#[export] Hint Resolve integer_mono integer_safe : np.

Lemma us_ascii : ascii underscore = true. Proof. reflexivity. Qed.
#[export] Hint Resolve us_ascii : np.

Lemma zpi_eq : zero_prefixable_int = unchecked_utf8 14 (taken (digits_us digit digit)). Proof. reflexivity. Qed.
Lemma zpi_monoC : monoC ascii zero_prefixable_int. Proof. rewrite zpi_eq. np. Qed.
Lemma zpi_mono : mono zero_prefixable_int. Proof. eapply monoC_mono, zpi_monoC. Qed.
Lemma zpi_safe : safe zero_prefixable_int. Proof. rewrite zpi_eq. np. Qed.
#[export] Hint Resolve zpi_monoC zpi_mono zpi_safe : np.

Definition frac_body : parser bytes := byte_ dot ;;; context (cut_err zero_prefixable_int).
Lemma frac_body_monoC : monoC ascii frac_body. Proof. unfold frac_body. np. Qed.
Lemma frac_eq : frac = unchecked_utf8 15 (taken frac_body). Proof. reflexivity. Qed.
Lemma frac_monoC : monoC ascii frac. Proof. rewrite frac_eq. apply monoC_unchecked, monoC_taken, frac_body_monoC. Qed.
Lemma frac_mono : mono frac. Proof. eapply monoC_mono, frac_monoC. Qed.
Lemma frac_safe : safe frac.
Proof. rewrite frac_eq. apply safe_unchecked_taken; [unfold frac_body; np|apply frac_body_monoC]. Qed.
#[export] Hint Resolve frac_monoC frac_mono frac_safe : np.

Definition exp_body : parser bytes :=
  one_of (fun b => byte_eqb b x65 || byte_eqb b x45) ;;;
  opt (one_of (fun b => byte_eqb b plus || byte_eqb b dash)) ;;;
  cut_err zero_prefixable_int.
Lemma exp_body_monoC : monoC ascii exp_body.
Proof.
  unfold exp_body. apply monoC_bind; [apply monoC_one_of, e_ascii|]. intros _.
  apply monoC_bind; [apply monoC_opt, monoC_one_of, sign_ascii|]. intros _. np.
Qed.
Lemma exp_eq : exp = unchecked_utf8 16 (taken exp_body). Proof. reflexivity. Qed.
Lemma exp_monoC : monoC ascii exp. Proof. rewrite exp_eq. apply monoC_unchecked, monoC_taken, exp_body_monoC. Qed.
Lemma exp_mono : mono exp. Proof. eapply monoC_mono, exp_monoC. Qed.
Lemma exp_safe : safe exp.
Proof. rewrite exp_eq. apply safe_unchecked_taken; [unfold exp_body; np|apply exp_body_monoC]. Qed.
#[export] Hint Resolve exp_monoC exp_mono exp_safe : np.

Definition float_body : parser unit := dec_int ;;; (pvoid exp <|> (frac ;;; pvoid (opt exp))).
Lemma float_body_monoC : monoC ascii float_body. Proof. unfold float_body. np. Qed.
Lemma float_eq_ : float_ = unchecked_utf8 17 (taken float_body). Proof. reflexivity. Qed.
Lemma float__mono : mono float_. Proof. rewrite float_eq_. unfold float_body. np. Qed.
Lemma float__safe : safe float_.
Proof. rewrite float_eq_. apply safe_unchecked_taken; [unfold float_body; np|apply float_body_monoC]. Qed.
#[export] Hint Resolve float__mono float__safe : np.

Lemma float_of_total s st : float_of s <> SubPanic st.
Proof.
  unfold float_of. destruct (fdec_of_text (remove_us s)); try discriminate.
  destruct (_ && _); [discriminate|]. destruct (overflows m e); discriminate.
Qed.

Lemma inf_mono : mono inf. Proof. unfold inf. np. Qed.
Lemma inf_safe : safe inf. Proof. unfold inf. np. Qed.
Lemma nan_mono : mono nan. Proof. unfold nan. np. Qed.
Lemma nan_safe : safe nan. Proof. unfold nan. np. Qed.
#[export] Hint Resolve inf_mono inf_safe nan_mono nan_safe : np.

(* special_float: the sign byte came from one_of((b'+', b'-')) *)
Lemma special_float_mono : mono special_float. Proof. unfold special_float. np. Qed.
Lemma special_float_safe : safe special_float.
Proof.
  unfold special_float. eapply safe_bind_val; [np|np|np|apply valP_opt, valP_one_of|].
  intros [sign|] Hs; cbv beta in Hs; [|np].
  apply safe_bind; [np|np|np|]. intro f.
  destruct (byte_eqb sign plus) eqn:E1; [np|]. destruct (byte_eqb sign dash) eqn:E2; [np|]. discriminate Hs.
Qed.
#[export] Hint Resolve special_float_mono special_float_safe : np.

Lemma float_mono : mono float. Proof. unfold float. np. Qed.
Lemma float_safe : safe float.
Proof.
  unfold float. apply safe_context, safe_alt; [|np]. apply safe_and_then; [np|]. intros. apply float_of_total.
Qed.
#[export] Hint Resolve float_mono float_safe : np.

(* ============================== key.rs ================================================================ *)
Lemma unquoted_key_mono : mono unquoted_key. Proof. unfold unquoted_key. np. Qed.
Lemma unquoted_key_progress : progress unquoted_key. Proof. unfold unquoted_key. np. Qed.
Lemma unquoted_key_safe : safe unquoted_key. Proof. unfold unquoted_key, take_while1. np. Qed.
#[export] Hint Resolve unquoted_key_mono unquoted_key_progress unquoted_key_safe : np.

Lemma simple_key_mono : mono simple_key. Proof. unfold simple_key. np. Qed.
Lemma simple_key_progress : progress simple_key. Proof. unfold simple_key. np. Qed.
Lemma simple_key_safe : safe simple_key. Proof. unfold simple_key. np. Qed.
#[export] Hint Resolve simple_key_mono simple_key_progress simple_key_safe : np.

Lemma key_part_mono : mono key_part. Proof. unfold key_part. np. Qed.
Lemma key_part_progress : progress key_part. Proof. unfold key_part. np. Qed.
Lemma key_part_safe : safe key_part. Proof. unfold key_part. np. Qed.
#[export] Hint Resolve key_part_mono key_part_progress key_part_safe : np.

(* key.rs: `path.first_mut().expect(..)` / `path.last_mut().expect(..)`: separated(1.., ..) is non-empty *)
Lemma fix_key_path_some path : path <> [] -> exists p, fix_key_path path = Some p /\ p <> [].
Proof.
  intro H. destruct path as [|first tl]; [congruence|]. unfold fix_key_path.
  match goal with |- context [rev (?x :: tl)] => destruct (rev (x :: tl)) as [|last rinit] eqn:R end.
  - apply (f_equal (@length key)) in R. rewrite rev_length in R. discriminate.
  - eexists. split; [reflexivity|]. cbn [rev]. intro E. apply app_eq_nil in E as [_ E]. discriminate.
Qed.

Definition key_raw : parser (list key) :=
  try_map (fun k : list key => if check_depth (length k) then TmErr RecursionLimit else TmOk k)
          (context (separated1 key_part (byte_ DOT_SEP))).
Lemma key_raw_mono : mono key_raw. Proof. unfold key_raw. np. Qed.
Lemma key_raw_progress : progress key_raw. Proof. unfold key_raw. np. Qed.
Lemma key_raw_safe : safe key_raw.
Proof. unfold key_raw. apply safe_try_map_total; [np|]. intros a s. destruct (check_depth _); discriminate. Qed.
Lemma key_raw_val : valP (fun l => l <> []) key_raw.
Proof.
  unfold key_raw. eapply valP_try_map; [apply valP_context, valP_separated1_nonempty|].
  intros a b Ha E. destruct (check_depth _); inversion E; subst. exact Ha.
Qed.
Lemma key_eq : key_ = (path <- key_raw ;; match fix_key_path path with Some p => ret p | None => fun _ => Panic P_key_path_empty end).
Proof. reflexivity. Qed.
Lemma key_mono : mono key_. Proof. rewrite key_eq. pose proof key_raw_mono. np. Qed.
Lemma key_progress : progress key_. Proof. rewrite key_eq. pose proof key_raw_progress. np. Qed.
Lemma key_safe : safe key_.
Proof.
  rewrite key_eq. eapply safe_bind_val; [np|apply key_raw_mono|apply key_raw_safe|apply key_raw_val|].
  intros path Hp. destruct (fix_key_path_some path Hp) as (p & -> & _). np.
Qed.
Lemma key_val : valP (fun l => l <> []) key_.
Proof.
  rewrite key_eq. eapply valP_bind_val; [apply key_raw_val|]. intros path Hp.
  destruct (fix_key_path_some path Hp) as (p & -> & Hne). apply valP_ret, Hne.
Qed.
#[export] Hint Resolve key_mono key_progress key_safe : np.

(* ============================== the lexical layer is total =========================================== *)
Theorem lexical_total :
  safe ws /\ safe comment /\ safe newline /\ safe ws_newline /\ safe ws_newlines /\ safe ws_comment_newline
  /\ safe line_ending /\ safe line_trailing
  /\ safe basic_string /\ safe ml_basic_string /\ safe literal_string /\ safe ml_literal_string /\ safe string_
  /\ safe integer /\ safe float /\ safe true_ /\ safe false_ /\ safe date_time
  /\ safe simple_key /\ safe key_.
Proof. repeat apply conj; np. Qed.

(* every from_utf8_unchecked site of the lexical parsers, by name: the parser that contains the
   site never returns `Panic (P_unchecked_utf8 _)` (nor any other panic) *)
Theorem unchecked_sites_ok :
  safe ws (* 1 *) /\ (forall n, safe (hexescape n)) (* 2 *)
  /\ (forall q term, ascii q = true -> safe term -> safe (quotes2 q term)) (* 3 *)
  /\ safe dec_int (* 10 *) /\ safe hex_int (* 11 *) /\ safe oct_int (* 12 *) /\ safe bin_int (* 13 *)
  /\ safe zero_prefixable_int (* 14 *) /\ safe frac (* 15 *) /\ safe exp (* 16 *) /\ safe float_ (* 17 *)
  /\ (forall m n, safe (unsigned_digits m n)) (* 20 *) /\ safe unquoted_key (* 30 *).
Proof. repeat apply conj; np. Qed.
