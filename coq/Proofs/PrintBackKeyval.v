(* Proofs/PrintBackKeyval.v — C03: values whose inline tables use plain keys, and a `key = value` line
   with a plain key: the text it consumes and the line Display prints for the pair it stores. *)
From TV Require Import Base.Prelude Base.Winnow Gen.Consts Spec.Lex Spec.Syntax.
From TV Require Import Model.Tree Model.Parse Model.Document Model.Encode.
From TV Require Import Proofs.LexEquivBase
                       Proofs.GrammarValueSound Proofs.GrammarDocLine
                       Proofs.TilingDefs Proofs.PrintBackBase Proofs.PrintBackEnc Proofs.PrintBackKey Proofs.PrintBackValue Proofs.PrintBackDoc Proofs.PrintBackIValue.
Require Import Lia ZifyBool ZifyN ZifyNat.

(* C03 tiling for values: the case of Proofs/PrintBackIValue.v in which no inline table has a dotted key *)
Theorem value_render s i v i' : isrc s i -> value_ i = Ok v i' ->
  exists t a o, vtext t a o /\ splits i t i' /\ isrc s i' /\ vrend s v o.
Proof.
  intros Hi H. destruct (value_renderK s i v i' Hi H) as (t & a & o & Ht & S & Hi' & Hv & _).
  exists t, a, o. repeat (split; [assumption|]). intro Hp. apply Hv, (proj1 (vplain_vok s)), Hp.
Qed.

(* ---- one key = value line ------------------------------------------------------------------------------- *)
Lemma parse_keyval_render s i x i1 : isrc s i -> parse_keyval i = Ok x i1 ->
  exists j0 w0 kt p w1 w2 t a o w c le,
    ws_tok w0 /\ key_tok kt p /\ ws_tok w1 /\ ws_tok w2 /\ vtext t a o /\ ws_tok w /\ opt_comment c
    /\ splits i w0 j0 /\ splits i (w0 ++ ((kt ++ w1 ++ [x3d] ++ w2 ++ t) ++ w ++ c) ++ le) i1
    /\ lend le (rest i1) /\ isrc s i1
    /\ (length p = 1 ->
        exists k v, x = ([], (k, IValue v))
          /\ d_prefix (k_leaf k) = Some (raw_with_span (pos i, pos j0))
          /\ (vplain v = true -> forall P z, kv_line s (with_prefix k P, v) ++ z
                         = raw_encode (traw s P) [] ++ ((kt ++ w1 ++ [x3d] ++ w2 ++ o) ++ w ++ c) ++ [x0a] ++ z)).
Proof.
  rewrite parse_keyval_unfold. intros Hi H. apply bind_inv in H as (kp & j1 & H1 & H).
  destruct (key_render_plain s i kp j1 Hi H1) as (j0 & w0 & kt & w1 & Hw0 & Hkt & Hw1 & S0 & S1 & Hj1 & Hplain).
  apply bind_inv in H as ([[pre v] suf] & j2 & H2 & H).
  apply cut_err_inv in H2. apply bind_inv in H2 as (y & k1 & E1 & H2). apply context_inv, byte_inv in E1 as [_ Se].
  destruct (isrc_splits s j1 [x3d] k1 Hj1 Se) as [Hk1 _].
  apply bind_inv in H2 as (pre' & k2 & E2 & H2). pose proof E2 as E2'. apply span_inv in E2' as (u2 & _ & Epre).
  apply span_ws_inv in E2 as (w2 & Hw2 & S2 & _). destruct (isrc_splits s k1 w2 k2 Hk1 S2) as [Hk2 _].
  apply bind_inv in H2 as (v' & k3 & E3 & H2). destruct (value_render s k2 v' k3 Hk2 E3) as (t & a & o & Ht & S3 & Hk3 & Hv).
  apply bind_inv in H2 as (suf' & k4 & E4 & H2).
  apply context_inv, line_trailing_read in E4 as (w & c & m1 & le & Hw & Hc & Swc & Esuf & Sle & Hl).
  destruct (isrc_splits s k3 (w ++ c) m1 Hk3 Swc) as [Hm1 _]. destruct (isrc_splits s m1 le k4 Hm1 Sle) as [Hm2 _].
  apply ret_inv in H2 as [E ->]. injection E as -> -> ->.
  destruct (pop_key kp) as [[path k]|] eqn:Ep; [|discriminate]. apply ret_inv in H as [-> ->].
  exists j0, w0, kt, (map k_key kp), w1, w2, t, a, o, w, c, le. repeat (split; [assumption|]).
  split; [|split; [exact Hl|split; [exact Hm2|]]].
  - pose proof (splits_trans _ _ _ _ _ S0 (splits_trans _ _ _ _ _ S1 (splits_trans _ _ _ _ _ Se (splits_trans _ _ _ _ _ S2 (splits_trans _ _ _ _ _ S3 (splits_trans _ _ _ _ _ Swc Sle)))))) as S.
    rewrite <- !app_assoc in *. exact S.
  - intro Hl1. rewrite map_length in Hl1. destruct (Hplain Hl1) as (k0 & jb & -> & Sb & Sc & Erepr & Eleaf).
    cbn [pop_key rev app] in Ep. injection Ep as <- <-.
    exists k0, (value_decorate v' (raw_with_span pre') (raw_with_span suf')). split; [reflexivity|].
    split; [rewrite Eleaf; reflexivity|]. intros Hs P z. rewrite vplain_decorate in Hs.
    destruct (isrc_splits s i w0 j0 Hi S0) as [Hj0 _]. destruct (isrc_splits s j0 kt jb Hj0 Sb) as [Hjb _].
    unfold kv_line, with_prefix. cbn [fst snd]. unfold encode_key_path. cbn [rev app map encode_key_path_loop].
    unfold key_display_repr, decor_prefix, decor_suffix. rewrite tkey_fields. cbn [set_leaf k_key k_repr k_leaf k_dotted tdecor d_prefix d_suffix toraw].
    rewrite Eleaf, Erepr. cbn [decor_new d_suffix toraw]. rewrite (span_repr' s j0 kt jb Hj0 Sb).
    rewrite (span_prints s jb w1 j1 _ Hjb Sc), (ncr_ws w1 Hw1).
    subst pre' suf'.
    rewrite (vrend_decorated s v' o k1 w2 k2 k3 (w ++ c) m1 Hv Hk1 S2 Hk3 Swc Hs _ DEFAULT_VALUE_DECOR (Nat.lt_succ_diag_r _)).
    rewrite (ncr_ws w2 Hw2), ncr_app, (ncr_ws w Hw), (ncr_opt_comment c Hc).
    repeat first [rewrite <- app_assoc | progress cbn [app]]. reflexivity.
Qed.
