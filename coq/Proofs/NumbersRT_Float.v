(* Proofs/NumbersRT_Float.v — C11, floats: the overflow guard (both signs), exactness of the
   `overflows` shortcut, and the writer's text being read back as the same decimal. *)
From TV Require Import Base.Prelude Base.Utf8 Base.Winnow Gen.Consts.
From TV Require Import Model.Trivia Model.Strings Model.Datetime Model.Numbers Model.Tree Model.Parse Model.Document.
From TV Require Import Model.Write Model.WriteFloat.
From TV Require Import Proofs.Eoi Proofs.NumbersRT_Lex Proofs.NumbersRT_Int Proofs.NumbersRT_Value.
Require Import Lia ZifyBool ZifyN ZifyNat.

(* ---- the guard of `float`: a decimal literal whose magnitude rounds to an infinity is refused,
        with either sign.  This is where the generated flags FLOAT_REJECT_POS_INF / _NEG_INF are
        used: both must be `true` for the two `exact I` below to typecheck. ------------------------ *)
Lemma float_of_overflow t neg m e :
  fdec_of_text (remove_us t) = FDec neg m e -> overflows m e = true ->
  exists err, float_of t = SubCut err.
Proof.
  intros Hd Ho. unfold float_of. rewrite Hd, Ho. cbn [andb].
  destruct neg.
  - change FLOAT_REJECT_NEG_INF with true. cbv iota. eauto.
  - change FLOAT_REJECT_POS_INF with true. cbv iota. eauto.
Qed.

Theorem float_overflow i t i' neg m e :
  float_ i = Ok t i' -> fdec_of_text (remove_us t) = FDec neg m e -> overflows m e = true ->
  is_cut (float i).
Proof.
  intros Hl Hd Ho. destruct (float_of_overflow t neg m e Hd Ho) as [err Hf].
  unfold float, context, alt, and_then. rewrite Hl, Hf. exact I.
Qed.

Lemma fdec_of_text_dec s : exists n m e, fdec_of_text s = FDec n m e.
Proof.
  unfold fdec_of_text.
  repeat match goal with
         | |- context [let '(_, _) := ?x in _] => destruct x
         end.
  eauto.
Qed.

Theorem float_decimal_never_inf i v i' :
  and_then float_ float_of i = Ok v i' ->
  exists n m e, v = FDec n m e /\ overflows m e = false.
Proof.
  unfold and_then. destruct (float_ i) as [t j|err j|err j|st]; try discriminate.
  unfold float_of. destruct (fdec_of_text_dec (remove_us t)) as (n & m & e & ->).
  destruct (overflows m e) eqn:Ho.
  - destruct n.
    + change FLOAT_REJECT_NEG_INF with true. cbn [andb]. discriminate.
    + change FLOAT_REJECT_POS_INF with true. cbn [andb]. discriminate.
  - cbn [andb]. intro H. injection H as <- _. eauto.
Qed.

(* `float` as a whole yields an infinity only for the spelled-out `inf` *)
Theorem float_inf_only_spelled i n i' :
  float i = Ok (FInf n) i' -> exists j, special_float i = Ok (FInf n) j.
Proof.
  unfold float, context, alt.
  destruct (and_then float_ float_of i) as [v j|err j|err j|st] eqn:E; try discriminate.
  - intro H. injection H as -> _. apply float_decimal_never_inf in E.
    destruct E as (n' & m & e & E & _). discriminate.
  - destruct (special_float i) as [v' j'|err' j'|err' j'|st']; try discriminate.
    intro H. injection H as -> _. eauto.
Qed.

(* through Value::from_str: the literal is an error (the date-time alternative backtracks first) *)
Theorem value_float_overflow s b tl t i' neg m e :
  s = b :: tl -> num_start b = true -> no_dt0 s ->
  float_ (new_input s) = Ok t i' -> fdec_of_text (remove_us t) = FDec neg m e -> overflows m e = true ->
  exists err at_, parse_value_raw s = PErr err at_.
Proof.
  intros Hs Hn Hdt Hl Hd Ho.
  pose proof (float_overflow _ _ _ _ _ _ Hl Hd Ho) as Hc.
  pose proof (date_time_bt0 (new_input s) Hdt) as Hb.
  unfold parse_value_raw. rewrite parse_all_eoi_unfold. unfold value_. cbn [value_f].
  unfold value_step, pmap, with_span.
  rewrite (value_body_number _ (new_input s) b tl); [|rewrite Hs; reflexivity | exact Hn].
  unfold number_arm, alt, pmap.
  destruct (date_time (new_input s)); simpl in Hb; try contradiction.
  destruct (float (new_input s)); simpl in Hc; try contradiction.
  cbn [lift_outcome]. eauto.
Qed.

(* ---- the shortcut in `overflows` is exact ---------------------------------------------------------- *)
Definition thrZ : Z := (2 ^ 1024 - 2 ^ 970)%Z.
(* m * 10^e >= 2^1024 - 2^970 as a statement about rationals, cross-multiplied for negative e *)
Definition exceeds (m : N) (e : Z) : Prop :=
  if (0 <=? e)%Z then (thrZ <= Z.of_N m * 10 ^ e)%Z else (thrZ * 10 ^ (- e) <= Z.of_N m)%Z.

Lemma thrZ_N : thrZ = Z.of_N f64_overflow_threshold.
Proof. vm_compute. reflexivity. Qed.
Lemma thr_lo : (10 ^ 308 < thrZ)%Z.
Proof. apply Z.ltb_lt. vm_compute. reflexivity. Qed.
Lemma thr_hi : (thrZ <= 10 ^ 310)%Z.
Proof. apply Z.leb_le. vm_compute. reflexivity. Qed.

Lemma ndigits_f_zero f : ndigits_f f 0 = 0.
Proof. destruct f; reflexivity. Qed.

Lemma ndigits_f_bound : forall fuel m, (m < 2 ^ N.of_nat fuel)%N -> (0 < m)%N ->
  (1 <= Z.of_nat (ndigits_f fuel m) /\
   10 ^ (Z.of_nat (ndigits_f fuel m) - 1) <= Z.of_N m < 10 ^ Z.of_nat (ndigits_f fuel m))%Z.
Proof.
  induction fuel as [|fuel IH]; intros m Hf Hm.
  - change (N.of_nat 0) with 0%N in Hf. lia.
  - cbn [ndigits_f]. replace (m =? 0)%N with false by lia.
    destruct (N.eq_dec (m / 10) 0) as [Hq|Hq].
    + rewrite Hq, ndigits_f_zero. assert (m < 10)%N.
      { pose proof (N.div_mod m 10 ltac:(lia)). pose proof (N.mod_lt m 10 ltac:(lia)). lia. }
      change (Z.of_nat 1 - 1)%Z with 0%Z. change (10 ^ 0)%Z with 1%Z. change (10 ^ Z.of_nat 1)%Z with 10%Z. lia.
    + assert (Hq' : (m / 10 < 2 ^ N.of_nat fuel)%N).
      { rewrite Nat2N.inj_succ, N.pow_succ_r' in Hf. apply N.div_lt_upper_bound; lia. }
      destruct (IH (m / 10)%N Hq' ltac:(lia)) as (K1 & K2 & K3).
      set (k := ndigits_f fuel (m / 10)) in *.
      rewrite Nat2Z.inj_succ. unfold Z.succ.
      replace (Z.of_nat k + 1 - 1)%Z with (Z.of_nat k - 1 + 1)%Z by lia.
      rewrite (Z.pow_add_r 10 (Z.of_nat k - 1) 1) by lia.
      rewrite (Z.pow_add_r 10 (Z.of_nat k) 1) by lia.
      change (10 ^ 1)%Z with 10%Z.
      rewrite N2Z.inj_div in K2, K3. change (Z.of_N 10) with 10%Z in *.
      pose proof (Z.div_mod (Z.of_N m) 10 ltac:(lia)) as D.
      pose proof (Z.mod_pos_bound (Z.of_N m) 10 ltac:(lia)) as B.
      split; [lia|]. split; lia.
Qed.

Lemma ndigits_bound m : (0 < m)%N ->
  (1 <= Z.of_nat (ndigits m) /\
   10 ^ (Z.of_nat (ndigits m) - 1) <= Z.of_N m < 10 ^ Z.of_nat (ndigits m))%Z.
Proof.
  intro Hm. unfold ndigits. apply ndigits_f_bound; [|exact Hm].
  pose proof (size_nat_gt m) as H. rewrite Nat2N.inj_succ, N.pow_succ_r'. lia.
Qed.

Lemma pow10_pos z : (0 < 10 ^ z)%Z \/ (z < 0)%Z.
Proof. destruct (Z.le_gt_cases 0 z) as [H|H]; [left; apply Z.pow_pos_nonneg; lia | right; lia]. Qed.

(* The digit count settles the comparison with any threshold T that lies between two powers of ten
   which the count separates.  Nothing below depends on the values of T, lo and hi, so the large
   constants are never spelled out. *)
Lemma below_pos T lo M nd e : (10 ^ lo < T)%Z -> (1 <= nd)%Z -> (M < 10 ^ nd)%Z ->
  (0 <= e)%Z -> (nd + e <= lo)%Z -> ~ (T <= M * 10 ^ e)%Z.
Proof.
  intros T_lo N1 N3 He C H.
  assert (P : (0 < 10 ^ e)%Z) by (apply Z.pow_pos_nonneg; lia).
  assert (E1 : (M * 10 ^ e < 10 ^ nd * 10 ^ e)%Z) by (apply Z.mul_lt_mono_pos_r; lia).
  rewrite <- Z.pow_add_r in E1 by lia.
  assert (E2 : (10 ^ (nd + e) <= 10 ^ lo)%Z) by (apply Z.pow_le_mono_r; lia).
  lia.
Qed.

Lemma below_neg T lo M nd e : (10 ^ lo < T)%Z -> (0 <= lo)%Z -> (M < 10 ^ nd)%Z ->
  (e < 0)%Z -> (nd + e <= lo)%Z -> ~ (T * 10 ^ (- e) <= M)%Z.
Proof.
  intros T_lo Hlo N3 He C H.
  assert (P : (0 < 10 ^ (- e))%Z) by (apply Z.pow_pos_nonneg; lia).
  assert (E1 : (10 ^ lo * 10 ^ (- e) < T * 10 ^ (- e))%Z) by (apply Z.mul_lt_mono_pos_r; lia).
  rewrite <- Z.pow_add_r in E1 by lia.
  assert (E2 : (10 ^ nd <= 10 ^ (lo + - e))%Z) by (apply Z.pow_le_mono_r; lia).
  lia.
Qed.

Lemma above_pos T hi M nd e : (T <= 10 ^ hi)%Z -> (1 <= nd)%Z -> (10 ^ (nd - 1) <= M)%Z ->
  (0 <= e)%Z -> (hi < nd + e)%Z -> (T <= M * 10 ^ e)%Z.
Proof.
  intros T_hi N1 N2 He C.
  assert (P : (0 < 10 ^ e)%Z) by (apply Z.pow_pos_nonneg; lia).
  assert (E1 : (10 ^ (nd - 1) * 10 ^ e <= M * 10 ^ e)%Z) by (apply Z.mul_le_mono_nonneg_r; lia).
  rewrite <- Z.pow_add_r in E1 by lia.
  assert (E2 : (10 ^ hi <= 10 ^ (nd - 1 + e))%Z) by (apply Z.pow_le_mono_r; lia).
  lia.
Qed.

Lemma above_neg T hi M nd e : (T <= 10 ^ hi)%Z -> (0 <= hi)%Z -> (10 ^ (nd - 1) <= M)%Z ->
  (e < 0)%Z -> (hi < nd + e)%Z -> (T * 10 ^ (- e) <= M)%Z.
Proof.
  intros T_hi Hhi N2 He C.
  assert (P : (0 < 10 ^ (- e))%Z) by (apply Z.pow_pos_nonneg; lia).
  assert (E1 : (T * 10 ^ (- e) <= 10 ^ hi * 10 ^ (- e))%Z) by (apply Z.mul_le_mono_nonneg_r; lia).
  rewrite <- Z.pow_add_r in E1 by lia.
  assert (E2 : (10 ^ (hi + - e) <= 10 ^ (nd - 1))%Z) by (apply Z.pow_le_mono_r; lia).
  lia.
Qed.

Lemma thrZ_pos : (0 < thrZ)%Z.
Proof. apply Z.lt_trans with (2 := thr_lo). apply Z.pow_pos_nonneg; [reflexivity|discriminate]. Qed.

Theorem overflows_exact m e : overflows m e = true <-> exceeds m e.
Proof.
  unfold overflows, exceeds.
  destruct (m =? 0)%N eqn:Em.
  { apply N.eqb_eq in Em. subst m. split; [discriminate|]. intro H. exfalso.
    pose proof thrZ_pos as T. change (Z.of_N 0) with 0%Z in H.
    destruct (0 <=? e)%Z eqn:Ee.
    - rewrite Z.mul_0_l in H. lia.
    - assert (P : (0 < 10 ^ (- e))%Z) by (apply Z.pow_pos_nonneg; lia).
      pose proof (Z.mul_pos_pos _ _ T P). lia. }
  assert (Hm : (0 < m)%N) by lia.
  destruct (ndigits_bound m Hm) as (N1 & N2 & N3).
  set (nd := Z.of_nat (ndigits m)) in *. set (M := Z.of_N m) in *.
  destruct (nd + e <=? 308)%Z eqn:C1.
  { (* too small *)
    split; [discriminate|]. intro H. exfalso. revert H. apply Z.leb_le in C1.
    destruct (0 <=? e)%Z eqn:Ee.
    - apply (below_pos thrZ 308 M nd e thr_lo N1 N3); [lia|exact C1].
    - apply (below_neg thrZ 308 M nd e thr_lo); [discriminate|exact N3|lia|exact C1]. }
  destruct (310 <? nd + e)%Z eqn:C2.
  { (* too large *)
    split; [|reflexivity]. intros _. apply Z.ltb_lt in C2.
    destruct (0 <=? e)%Z eqn:Ee.
    - apply (above_pos thrZ 310 M nd e thr_hi N1 N2); [lia|exact C2].
    - apply (above_neg thrZ 310 M nd e thr_hi); [discriminate|exact N2|lia|exact C2]. }
  (* exact comparison *)
  destruct (0 <=? e)%Z eqn:Ee.
  - rewrite N.leb_le, thrZ_N. rewrite N2Z.inj_le, N2Z.inj_mul, N2Z.inj_pow.
    rewrite Z2N.id by lia. change (Z.of_N 10) with 10%Z. reflexivity.
  - rewrite N.leb_le, thrZ_N. rewrite N2Z.inj_le, N2Z.inj_mul, N2Z.inj_pow.
    rewrite Z2N.id by lia. change (Z.of_N 10) with 10%Z. reflexivity.
Qed.

(* ---- the float writer ------------------------------------------------------------------------------
   std's `{}` on a finite non-zero float is an ORACLE.  What is assumed about its text (and tested
   on every generated case by lib/props/c11.py: check_std_text) is collected in `std_finite_shape`:
     text = ["-"] ip ["." fp]      ip = "0" or digits without leading zero, fp digits, no exponent,
     "-" iff is_sign_negative(), a fractional part is printed iff `x % 1.0 == 0.0` is false. *)
Record std_finite_shape (c : fclass) (text ip fp : bytes) : Prop := mkShape {
  sh_text : text = (if fc_neg c then [dash] else []) ++ ip ++ match fp with [] => [] | _ => dot :: fp end;
  sh_ip : proper_digits ip \/ ip = [x30];
  sh_fp : forallb is_digit fp = true;
  sh_integral : fc_integral c = true <-> fp = []
}.

(* the fraction digits the TOML text carries: std's, or the appended "0" *)
Definition toml_frac (fp : bytes) : bytes := match fp with [] => [x30] | _ => fp end.

Lemma digit_not_e b : is_digit b = true -> negb (byte_eqb b x65 || byte_eqb b x45) = true.
Proof.
  intro H. destruct (byte_eqb b x65) eqn:E1; [apply byte_eqb_eq in E1; subst; discriminate H|].
  destruct (byte_eqb b x45) eqn:E2; [apply byte_eqb_eq in E2; subst; discriminate H|]. reflexivity.
Qed.
Lemma digit_not_dot b : is_digit b = true -> negb (byte_eqb dot b) = true.
Proof. intro H. destruct (byte_eqb dot b) eqn:E; [apply byte_eqb_eq in E; subst; discriminate H | reflexivity]. Qed.

(* the exact decimal denoted by  ["-"] ip "." fp *)
Definition fdec_body (neg : bool) (body : bytes) : fval :=
  let '(mant, ex) := split_at_byte (fun b => byte_eqb b x65 || byte_eqb b x45) body in
  let '(ip, fp) := split_at_byte (byte_eqb dot) mant in
  let fp := match fp with Some f => f | None => [] end in
  let e10 := match ex with
             | None => 0%Z
             | Some t => match t with
                         | b :: u => if byte_eqb b plus then Z.of_N (dec_value u)
                                     else if byte_eqb b dash then (- Z.of_N (dec_value u))%Z
                                     else Z.of_N (dec_value t)
                         | [] => 0%Z
                         end
             end in
  FDec neg (dec_value (ip ++ fp)) (e10 - Z.of_nat (length fp))%Z.

Lemma fdec_of_text_dash body : fdec_of_text (dash :: body) = fdec_body true body.
Proof. reflexivity. Qed.
Lemma fdec_of_text_nosign d tl :
  byte_eqb d plus = false -> byte_eqb d dash = false -> fdec_of_text (d :: tl) = fdec_body false (d :: tl).
Proof. intros H1 H2. unfold fdec_of_text. rewrite H1, H2. reflexivity. Qed.

Lemma fdec_body_plain neg ip fp :
  forallb is_digit ip = true -> forallb is_digit fp = true ->
  fdec_body neg (ip ++ dot :: fp) = FDec neg (dec_value (ip ++ fp)) (0 - Z.of_nat (length fp))%Z.
Proof.
  intros Hip Hfp. unfold fdec_body.
  assert (He : split_at_byte (fun b => byte_eqb b x65 || byte_eqb b x45) (ip ++ dot :: fp) = (ip ++ dot :: fp, None)).
  { unfold split_at_byte. rewrite span_while_all_true; [reflexivity|].
    rewrite forallb_app. cbn [forallb].
    rewrite (forallb_impl is_digit _ ip digit_not_e Hip), (forallb_impl is_digit _ fp digit_not_e Hfp). reflexivity. }
  rewrite He.
  assert (Hd : split_at_byte (byte_eqb dot) (ip ++ dot :: fp) = (ip, Some fp)).
  { unfold split_at_byte. rewrite (span_while_app_stop _ ip dot fp); [reflexivity | | reflexivity].
    apply (forallb_impl is_digit _ ip digit_not_dot Hip). }
  rewrite Hd. reflexivity.
Qed.

Lemma fdec_of_plain (neg : bool) ip fp :
  forallb is_digit ip = true -> ip <> [] -> forallb is_digit fp = true ->
  fdec_of_text ((if neg then [dash] else []) ++ ip ++ dot :: fp)
  = FDec neg (dec_value (ip ++ fp)) (0 - Z.of_nat (length fp))%Z.
Proof.
  intros Hip Hne Hfp. destruct neg; cbn [app].
  - rewrite fdec_of_text_dash. apply fdec_body_plain; assumption.
  - destruct ip as [|d tl]; [contradiction|].
    assert (Hd : is_digit d = true) by (cbn [forallb] in Hip; apply andb_true_iff in Hip; tauto).
    destruct (digit_not_sign _ Hd) as [E1 E2].
    change ((d :: tl) ++ dot :: fp) with (d :: tl ++ dot :: fp).
    rewrite (fdec_of_text_nosign d _ E1 E2).
    change (d :: tl ++ dot :: fp) with ((d :: tl) ++ dot :: fp).
    apply fdec_body_plain; assumption.
Qed.

Lemma dot_stop : in_class DIGIT dot = false /\ byte_eqb underscore dot = false.
Proof. split; reflexivity. Qed.

(* dec_int reads exactly  ["-"] ip  in front of ".fp" *)
Lemma dec_int_len_plain (neg : bool) ip rest_ :
  proper_digits ip \/ ip = [x30] ->
  dec_int_len (((if neg then [dash] else []) ++ ip) ++ dot :: rest_)
  = LOk (length ((if neg then [dash] else []) ++ ip)).
Proof. intro Hip. apply dec_int_len_token; [destruct neg; auto|exact Hip|exact dot_stop]. Qed.

(* the written text in the finite non-zero case *)
Lemma write_float_finite c text ip fp :
  fc_nan c = false -> fc_zero c = false -> std_finite_shape c text ip fp ->
  write_float c text = ((if fc_neg c then [dash] else []) ++ ip) ++ dot :: toml_frac fp.
Proof.
  intros Hn Hz [Ht _ _ Hi]. unfold write_float. rewrite Hn, Hz.
  assert (E : (if fc_neg c then if fc_integral c then text ++ t_dot_zero else text
               else if fc_integral c then text ++ t_dot_zero else text)
              = if fc_integral c then text ++ t_dot_zero else text) by (destruct (fc_neg c); reflexivity).
  destruct (fc_neg c) eqn:En; cbv iota; (destruct (fc_integral c) eqn:Ei;
    [ assert (fp = []) by (apply Hi; reflexivity); subst fp; rewrite Ht, app_nil_r; reflexivity
    | destruct fp as [|f0 ftl]; [assert (false = true) by (apply Hi; reflexivity); discriminate|];
      rewrite Ht, app_assoc; reflexivity ]).
Qed.

Theorem float_write_finite c text ip fp :
  fc_nan c = false -> fc_zero c = false -> std_finite_shape c text ip fp ->
  let m := dec_value (ip ++ toml_frac fp) in
  let e := (0 - Z.of_nat (length (toml_frac fp)))%Z in
  overflows m e = false ->
  float (new_input (write_float c text)) = Ok (FDec (fc_neg c) m e) (end_input (write_float c text)).
Proof.
  intros Hn Hz Hsh m e Ho.
  rewrite (write_float_finite c text ip fp Hn Hz Hsh).
  destruct Hsh as [_ Hip Hfp _].
  set (fp' := toml_frac fp) in *.
  assert (Hfp' : forallb is_digit fp' = true /\ fp' <> []).
  { unfold fp', toml_frac. destruct fp; [split; [reflexivity|discriminate] | split; [exact Hfp|discriminate]]. }
  destruct Hfp' as [Hfd Hfne]. destruct (ip_digits _ Hip) as [Hid Hine].
  set (pre := (if fc_neg c then [dash] else []) ++ ip).
  pose proof (float__plain pre fp' (dec_int_len_plain (fc_neg c) ip fp' Hip) Hfne Hfd) as HL.
  unfold float, context, alt, and_then. rewrite HL.
  unfold float_of.
  assert (Hnu : forallb not_us (pre ++ dot :: fp') = true).
  { unfold pre. rewrite !forallb_app. cbn [forallb].
    rewrite (forallb_impl is_digit _ ip digit_not_us Hid), (forallb_impl is_digit _ fp' digit_not_us Hfd).
    destruct (fc_neg c); reflexivity. }
  rewrite (remove_us_id _ Hnu). unfold pre. rewrite <- app_assoc.
  rewrite (fdec_of_plain (fc_neg c) ip fp' Hid Hine Hfd).
  fold m e. rewrite Ho. cbn [andb]. reflexivity.
Qed.

(* ... and Value::from_str sees a float, never an integer *)
Theorem value_write_finite c text ip fp :
  fc_nan c = false -> fc_zero c = false -> std_finite_shape c text ip fp ->
  let m := dec_value (ip ++ toml_frac fp) in
  let e := (0 - Z.of_nat (length (toml_frac fp)))%Z in
  overflows m e = false ->
  exists r d, parse_value_raw (write_float c text) = POk (VScalar (SFloat (FDec (fc_neg c) m e)) r d).
Proof.
  intros Hn Hz Hsh m e Ho.
  pose proof (float_write_finite c text ip fp Hn Hz Hsh Ho) as HF. fold m e in HF.
  pose proof (write_float_finite c text ip fp Hn Hz Hsh) as HW.
  destruct Hsh as [_ Hip Hfp _]. destruct (ip_digits _ Hip) as [Hid Hine].
  set (t := write_float c text) in *.
  assert (Hb : exists b tl, t = b :: tl /\ num_start b = true /\ no_dt0 t).
  { rewrite HW. destruct (fc_neg c); cbn [app].
    - exists dash, (ip ++ dot :: toml_frac fp). repeat split.
    - destruct ip as [|d tl]; [contradiction|]. cbn [app].
      exists d, (tl ++ dot :: toml_frac fp). cbn [forallb] in Hid. apply andb_true_iff in Hid as [Hd Htl].
      split; [reflexivity|]. split; [unfold num_start; rewrite Hd; reflexivity|].
      unfold no_dt0. rewrite Hd. apply no_dt_app; [exact Htl|]. split; discriminate. }
  destruct Hb as (b & tl & Hbt & Hns & Hdt).
  apply (parse_value_number t b tl _ Hbt Hns).
  apply number_arm_float; [apply date_time_bt0; exact Hdt | exact HF].
Qed.

(* NaN, zero and the infinities: fixed texts *)
Theorem float_write_nan c text :
  fc_nan c = true ->
  float (new_input (write_float c text)) = Ok (FNan (fc_neg c)) (end_input (write_float c text)).
Proof.
  intro Hn. unfold write_float. rewrite Hn. destruct (fc_neg c); vm_compute; reflexivity.
Qed.

Theorem float_write_zero c text :
  fc_nan c = false -> fc_zero c = true ->
  float (new_input (write_float c text)) = Ok (FDec (fc_neg c) 0 (-1)) (end_input (write_float c text)).
Proof.
  intros Hn Hz. unfold write_float. rewrite Hn, Hz. destruct (fc_neg c); vm_compute; reflexivity.
Qed.

(* std prints the infinities as "inf" / "-inf"; `inf % 1.0` is NaN so no ".0" is appended *)
Definition t_inf (neg : bool) : bytes := if neg then [x2d; x69; x6e; x66] else [x69; x6e; x66].
Theorem float_write_inf c :
  fc_nan c = false -> fc_zero c = false -> fc_integral c = false ->
  float (new_input (write_float c (t_inf (fc_neg c)))) = Ok (FInf (fc_neg c)) (end_input (write_float c (t_inf (fc_neg c)))).
Proof.
  intros Hn Hz Hi. unfold write_float. rewrite Hn, Hz, Hi. destruct (fc_neg c); vm_compute; reflexivity.
Qed.

Theorem value_write_special c text :
  (fc_nan c = true \/ (fc_nan c = false /\ fc_zero c = true) \/
   (fc_nan c = false /\ fc_zero c = false /\ fc_integral c = false /\ text = t_inf (fc_neg c))) ->
  exists f r d, parse_value_raw (write_float c text) = POk (VScalar (SFloat f) r d) /\
                float (new_input (write_float c text)) = Ok f (end_input (write_float c text)).
Proof.
  intros [Hn | [[Hn Hz] | (Hn & Hz & Hi & ->)]]; unfold write_float.
  - rewrite Hn. destruct (fc_neg c); do 3 eexists; split; vm_compute; reflexivity.
  - rewrite Hn, Hz. destruct (fc_neg c); do 3 eexists; split; vm_compute; reflexivity.
  - rewrite Hn, Hz, Hi. destruct (fc_neg c); do 3 eexists; split; vm_compute; reflexivity.
Qed.

(* ---- the round trip, reduced to the std oracle ------------------------------------------------------
   `shortest b` is std's `{}` text for the float with bit pattern b; `back f` is the bit pattern
   of what `str::parse::<f64>` returns for the exact decimal f (followed by `as f32` for the f32
   writer).  The single hypothesis bundles what DESIGN.md 4.4 lists: the printed text has the
   no-exponent shape, carries a fraction iff the value is not integral, denotes a decimal below
   the overflow threshold, and reads back as the same float (also after ".0" has been appended,
   which does not change the value denoted). *)
Section StdOracle.
  Variable cls : N -> fclass.            (* classify64 or classify32 *)
  Variable is_inf : N -> bool.
  Variable shortest : N -> bytes.
  Variable back : fval -> N.

  Definition std_roundtrip_hyp : Prop :=
    forall b, fc_nan (cls b) = false -> fc_zero (cls b) = false -> is_inf b = false ->
      exists ip fp,
        std_finite_shape (cls b) (shortest b) ip fp /\
        overflows (dec_value (ip ++ toml_frac fp)) (0 - Z.of_nat (length (toml_frac fp))) = false /\
        back (FDec (fc_neg (cls b)) (dec_value (ip ++ toml_frac fp)) (0 - Z.of_nat (length (toml_frac fp)))) = b.

  Theorem writer_roundtrip_finite :
    std_roundtrip_hyp ->
    forall b, fc_nan (cls b) = false -> fc_zero (cls b) = false -> is_inf b = false ->
      exists f r d,
        float (new_input (write_float (cls b) (shortest b))) = Ok f (end_input (write_float (cls b) (shortest b))) /\
        parse_value_raw (write_float (cls b) (shortest b)) = POk (VScalar (SFloat f) r d) /\
        back f = b.
  Proof.
    intros H b Hn Hz Hi. destruct (H b Hn Hz Hi) as (ip & fp & Hsh & Ho & Hb).
    destruct (value_write_finite _ _ _ _ Hn Hz Hsh Ho) as (r & d & Hv).
    eexists _, r, d. split; [apply (float_write_finite _ _ _ _ Hn Hz Hsh Ho)|]. split; [exact Hv | exact Hb].
  Qed.
End StdOracle.
