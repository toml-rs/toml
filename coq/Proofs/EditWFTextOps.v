(* Proofs/EditWFTextOps.v — property C08, text half: what each edit operation does to the
   well-formedness (Spec/WF.v: tbl_wf) of the node it works on.  One lemma per operation,
   `node_ok (guard side f)`: under the operation's decidable side condition at the node the node
   stays well-formed in its slot and at least as visible; Proofs/EditWFTextBase.v lifts it along
   the path. *)
From TV Require Import Base.Prelude Base.Utf8 Spec.Lex.
From TV Require Import Model.Numbers Model.Tree Spec.WF.
From TV Require Import Spec.EditSpec Model.Edit Proofs.EditRefine Proofs.EditVerbatim.
From TV Require Import Proofs.EditWFTextBase.
From TV Require Import Proofs.KvFacts.
From TV Require Import Proofs.ModelFacts.
Require Import Lia.

(** * Guards: an operation restricted to the nodes that meet its side condition *)

Definition guard (g : item -> bool) (f : item -> option item) (i : item) : option item :=
  if g i then f i else None.
(* the node an operation with path P works on (the typed accessors of Model/Edit.v: at_path) *)
Fixpoint node_at (P : path) (it : item) : option item :=
  match P with
  | [] => Some it
  | SKey k :: P' =>
    match it with
    | ITable (Tbl items _ _ _ _ _) =>
      match kv_get items k with
      | Some (_, i) => if item_is_none i then None else node_at P' i
      | None => None
      end
    | IValue (VInline items _ _ _ _ _) =>
      match kv_get items k with
      | Some (_, IValue v) => node_at P' (IValue v)
      | _ => None
      end
    | _ => None
    end
  | SIdx n :: P' =>
    match it with
    | IValue (VArray vals _ _ _ _) =>
      match nth_error vals n with
      | Some (IValue v) => node_at P' (IValue v)
      | _ => None
      end
    | IAot ts _ => match nth_error ts n with Some t => node_at P' (ITable t) | None => None end
    | _ => None
    end
  end.
(* the node exists and meets g *)
Definition node_sat (P : path) (g : item -> bool) (it : item) : bool :=
  match node_at P it with Some node => g node | None => false end.

Lemma kv_upd_ext k F H m :
  (forall k' i, kv_get m k = Some (k', i) -> F i = H i) -> kv_upd k F m = kv_upd k H m.
Proof.
  induction m as [|[k1 i1] m IH]; simpl; intro E; [reflexivity|].
  destruct (bytes_eqb (k_key k1) k); [rewrite (E k1 i1 eq_refl)|rewrite (IH E)]; reflexivity.
Qed.
Lemma nth_upd_ext {A} n (F H : A -> option A) l :
  (forall x, nth_error l n = Some x -> F x = H x) -> nth_upd n F l = nth_upd n H l.
Proof.
  revert n. induction l as [|y l IH]; intros [|n]; simpl; intro E; try reflexivity.
  - rewrite (E y eq_refl). reflexivity.
  - rewrite (IH n E). reflexivity.
Qed.

(* at_path only uses the operation at the node *)
Lemma at_path_congr P f h : forall it node,
  node_at P it = Some node -> f node = h node -> at_path P f it = at_path P h it.
Proof.
  induction P as [|s P IH]; intros it node Hn E.
  - simpl in *. injection Hn as <-. exact E.
  - destruct s as [k|n]; simpl in Hn |- *;
      destruct it as [|[sc r d|vals tr cm d sp|items pre im dt d sp]|[items d im dt p sp]|ts sp]; try discriminate; f_equal.
    + apply kv_upd_ext. intros k' i G. rewrite G in Hn.
      destruct i as [|v| |]; try discriminate. rewrite (IH _ _ Hn E). reflexivity.
    + apply kv_upd_ext. intros k' i G. rewrite G in Hn.
      destruct (item_is_none i); [reflexivity|]. exact (IH _ _ Hn E).
    + apply nth_upd_ext. intros x G. rewrite G in Hn.
      destruct x as [|v| |]; try discriminate. rewrite (IH _ _ Hn E). reflexivity.
    + apply nth_upd_ext. intros x G. rewrite G in Hn. rewrite (IH _ _ Hn E). reflexivity.
Qed.

Lemma at_path_guard P f g it it' :
  at_path P f it = Some it' -> node_sat P g it = true -> at_path P (guard g f) it = Some it'.
Proof.
  unfold node_sat. intros H Hs. destruct (node_at P it) as [node|] eqn:Hn; [|discriminate].
  rewrite <- H. symmetry. apply (at_path_congr P f (guard g f) it node Hn).
  unfold guard. rewrite Hs. reflexivity.
Qed.

(** * Keys and values built through the API *)

(* the payload of an operation is printable: strings and keys are UTF-8, integers fit i64 *)
Fixpoint pv_ok (v : pv) : bool :=
  match v with
  | PVInt z => in_i64 z
  | PVStr s => utf8_valid_b s
  | PVBool _ => true
  | PVArr l => forallb pv_ok l
  | PVInl l => forallb (fun kv => match kv with (k, x) => utf8_valid_b k && pv_ok x end) l
  end.

Lemma key_wf_new line k : utf8_valid_b k = true -> key_wf line (key_new k).
Proof. intro H. split; [exact H|]. split; apply decor_ok_default. Qed.
Lemma key_wf_fmt line k' : utf8_valid_b (k_key k') = true -> key_wf line (key_fmt k').
Proof. intro H. split; [exact H|]. split; apply decor_ok_default. Qed.

Lemma ws_lines w : ws_tok w -> lines_tok w.
Proof. apply ln_last. Qed.
Lemma raw_ok_ws_lines r : raw_ok SWs r -> raw_ok SLines r.
Proof. destruct r; simpl; auto using ws_lines. Qed.
Lemma raw_ok_ws_trail r : raw_ok SWs r -> raw_ok SLineTrail r.
Proof. destruct r; simpl; auto using ws_line_trail. Qed.
(* a key of an inline table may stand on a line *)
Lemma key_wf_line k : key_wf false k -> key_wf true k.
Proof.
  intros (Hr & Hd & [Hp Hs]). split; [exact Hr|]. split; [exact Hd|]. split; [|exact Hs].
  destruct (d_prefix (k_leaf k)) as [r|]; simpl in *; [apply raw_ok_ws_lines; exact Hp|exact I].
Qed.

(* the context of a value only matters for its own decor *)
Lemma value_wf_redecor c c' v d' : value_wf c v -> vdecor_ok c' d' -> value_wf c' (value_set_decor v d').
Proof. destruct v; simpl; tauto. Qed.
Lemma value_wf_decorate c c' v p s :
  value_wf c v -> vdecor_ok c' (decor_new p s) -> value_wf c' (value_decorate v p s).
Proof. destruct v; simpl; tauto. Qed.
Lemma value_wf_clear c c' v : value_wf c v -> value_wf c' (value_clear_decor v).
Proof. intro H. destruct v; simpl in *; pose proof (vdecor_ok_default c'); tauto. Qed.
Lemma value_wf_decor c v : value_wf c v -> vdecor_ok c (value_decor v).
Proof. destruct v; simpl; tauto. Qed.
Lemma vdecor_inl_line d : vdecor_ok CInl d -> vdecor_ok CLine d.
Proof.
  intros [Hp Hs]. split; [exact Hp|]. destruct (d_suffix d) as [r|]; simpl in *; [apply raw_ok_ws_trail; exact Hs|exact I].
Qed.
Lemma value_wf_inl_line v : value_wf CInl v -> value_wf CLine v.
Proof.
  destruct v; simpl.
  - intros (H1 & H2 & H3). repeat split; try assumption; apply vdecor_inl_line; assumption.
  - intros (H1 & H2 & H3). split; [apply vdecor_inl_line; assumption|split; assumption].
  - intros (H1 & H2 & H3 & H4). split; [apply vdecor_inl_line; assumption|repeat split; assumption].
Qed.

Definition is_dotted_inl (i : item) : bool :=
  match i with IValue (VInline _ _ _ true _ _) => true | _ => false end.
Lemma pair_wf_value line v :
  is_dotted_inl (IValue v) = false -> pair_wf line (IValue v) <-> value_wf (if line then CLine else CInl) v.
Proof. destruct v as [| |items pre im [|] d sp]; simpl; try discriminate; tauto. Qed.

(* an entry whose key may stand in a slot of kind L (on a key/value line or not) and whose item meets P:
   `entry_ok` is `kv_ok true (iwf KEntry)`, `pair_ok L` is `kv_ok L (iwf (KPair L))` *)
Definition kv_ok (L : bool) (P : item -> Prop) (kv : key * item) : Prop := key_wf L (fst kv) /\ P (snd kv).

Lemma kv_ok_no_none L P m : ~ P INone -> all_P (kv_ok L P) m -> forall k' i, In (k', i) m -> i <> INone.
Proof. intros Hp Ha k' i Hin ->. exact (Hp (proj2 (all_P_In _ _ _ Ha Hin))). Qed.

(* Extend for InlineTable: one entry after the other *)
Lemma kv_insert_ok L P acc k it :
  ~ P INone -> NoDup (kkeys acc) -> all_P (kv_ok L P) acc -> kv_ok L P (k, it) ->
  NoDup (kkeys (kv_insert acc k it)) /\ all_P (kv_ok L P) (kv_insert acc k it).
Proof.
  intros Hp Hn Ha Hk. unfold kv_insert. rewrite (kv_purge_noop acc (k_key k) (kv_ok_no_none L P acc Hp Ha)).
  destruct (kv_get acc (k_key k)) as [[k' i]|] eqn:G.
  - split; [rewrite kkeys_set; exact Hn|]. apply all_P_set_gen; [exact Ha|].
    intros k1 old _ Hold. split; [exact (proj1 Hold)|exact (proj2 Hk)].
  - split; [apply NoDup_kkeys_push; assumption|apply all_P_push; assumption].
Qed.

Lemma build_value_not_dotted v : is_dotted_inl (IValue (build_value v)) = false.
Proof. destruct v; reflexivity. Qed.

Lemma build_value_wf v : pv_ok v = true -> forall c, value_wf c (build_value v).
Proof.
  induction v as [z|s|b|l IH|l IH] using pv_ind2; intros Hp c; simpl in Hp.
  - simpl. split; [exact I|]. split; [exact Hp|apply vdecor_ok_default].
  - simpl. split; [exact Hp|]. split; [exact I|apply vdecor_ok_default].
  - simpl. split; [exact I|]. split; [exact I|apply vdecor_ok_default].
  - simpl. split; [apply vdecor_ok_default|]. split; [apply (raw_ok_empty SWscn)|].
    apply all_P_map. apply all_P_forall. intros x Hx. rewrite Forall_forall in IH.
    apply IH; [exact Hx|]. rewrite forallb_forall in Hp. apply Hp. exact Hx.
  - cbn [build_value].
    assert (G : forall acc, NoDup (kkeys acc) -> all_P (pair_ok false) acc ->
                let r := fold_left (fun a kv => kv_insert a (fst kv) (snd kv))
                                   (map (fun kv : bytes * pv => let (k, x) := kv in (key_new k, IValue (build_value x))) l) acc in
                NoDup (kkeys r) /\ all_P (pair_ok false) r).
    { induction l as [|[k x] l IHl]; intros acc Hn Ha; simpl; [auto|].
      simpl in Hp. apply andb_true_iff in Hp as [Hkx Hl]. apply andb_true_iff in Hkx as [Hk Hx].
      inversion IH as [|? ? IHx IHr]; subst.
      destruct (kv_insert_ok false _ acc (key_new k) (IValue (build_value x)) (fun F => F) Hn Ha) as [Hn' Ha'].
      { split; [apply key_wf_new; exact Hk|]. apply (pair_wf_value false _ (build_value_not_dotted x)). apply IHx; exact Hx. }
      apply IHl; assumption. }
    destruct (G [] (NoDup_nil _) I) as [Hn Ha].
    simpl. split; [apply vdecor_ok_default|]. split; [apply (raw_ok_empty SWs)|]. split; [exact Hn|exact Ha].
Qed.

(** * Tables: entries, visibility *)

Lemma kv_set_fmt_In m k k' i v : kv_get m k = Some (k', i) -> In (key_fmt k', v) (kv_set_fmt m k v).
Proof.
  induction m as [|[k1 i1] m IH]; simpl; [discriminate|].
  destruct (bytes_eqb (k_key k1) k); intro H; [injection H as <- <-; left; reflexivity|right; auto].
Qed.

(* the boolean form of "at least as visible" (the flags are kept by construction): a line or a header
   before, a line or a header after *)
Definition vis_side (a b : tbl) : bool := implb (hl a || ph a) (hl b || ph b).
Lemma vis_side_Rt a b :
  t_dotted a = t_dotted b -> t_implicit a = t_implicit b -> vis_side a b = true -> Rt a b.
Proof.
  intros Hd Hi H. repeat split; auto. intro E. unfold vis_side in H. rewrite E in H. exact H.
Qed.
(* a table that has a key/value line is visible whatever it was before *)
Lemma has_line_Rt a b :
  t_dotted a = t_dotted b -> t_implicit a = t_implicit b -> has_line b = true -> Rt a b.
Proof.
  intros Hd Hi Hl. repeat split; auto. intros _. unfold hl, ph.
  destruct (t_dotted b); simpl; [rewrite Hl; reflexivity|]. rewrite (shown_true _ Hl). reflexivity.
Qed.

(** * insert / remove *)

Lemma push_nonnil m k v : kv_push m k v <> [].
Proof. unfold kv_push. destruct m; discriminate. Qed.

(* the entries after Table::insert / InlineTable::insert of an item that meets P, in either kind of container *)
Lemma items_insert_ok L P m k it :
  ~ P INone -> utf8_valid_b k = true -> P it -> NoDup (kkeys m) -> all_P (kv_ok L P) m ->
  NoDup (kkeys (items_insert m k it)) /\ all_P (kv_ok L P) (items_insert m k it) /\
  (m <> [] -> items_insert m k it <> []) /\
  exists k', In (k', it) (items_insert m k it).
Proof.
  intros Hp Hk Hit Hn Ha. unfold items_insert. rewrite (kv_purge_noop m k (kv_ok_no_none L P m Hp Ha)).
  destruct (kv_get m k) as [[k' i]|] eqn:G.
  - split; [rewrite kkeys_set_fmt; exact Hn|]. split.
    + apply all_P_set_fmt; [exact Ha|]. intros k1 E. split; [apply key_wf_fmt; rewrite E; exact Hk|exact Hit].
    + split; [apply kkeys_nonnil, kkeys_set_fmt|]. exists (key_fmt k'). eapply kv_set_fmt_In; eauto.
  - split; [apply NoDup_kkeys_push; assumption|]. split.
    + apply all_P_push; [exact Ha|]. split; [apply key_wf_new; exact Hk|exact Hit].
    + split; [intros _; apply push_nonnil|]. exists (key_new k). unfold kv_push. apply in_or_app. right. left. reflexivity.
Qed.

Lemma op_insert_node k v :
  utf8_valid_b k = true -> pv_ok v = true -> node_ok (op_insert k v).
Proof.
  intros Hk Hv c i i' H Hw.
  assert (Hit : forall L, pair_wf L (IValue (build_value v))).
  { intro L. apply (pair_wf_value L _ (build_value_not_dotted v)). apply build_value_wf. exact Hv. }
  destruct i as [|[sc r d|vals tr cm d sp|items pre im dt d sp]|[items d im dt p sp]|ts sp]; simpl in H; try discriminate;
    injection H as <-.
  - (* inline table *)
    destruct (inline_node_parts _ _ _ _ _ _ _ Hw) as [Hn Ha]. split; [|exact I].
    destruct (items_insert_ok _ (iwf (KPair (inline_line c dt))) items k (IValue (build_value v)) (fun F => F) Hk (Hit _) Hn Ha) as (Hn' & Ha' & Hne & _).
    exact (inline_node_rebuild c items _ pre im dt d sp Hw Hn' Hne Ha').
  - (* table *)
    destruct (tbl_node_parts _ _ _ _ _ _ _ Hw) as [Hn Ha].
    destruct (items_insert_ok true (iwf KEntry) items k (IValue (build_value v)) (fun F => F) Hk (Hit true) Hn Ha) as (Hn' & Ha' & _ & k' & Hin).
    apply (tbl_node_rebuild c items _ d im dt p sp Hw Hn' Ha').
    apply has_line_Rt; [reflexivity|reflexivity|]. rewrite has_line_eq.
    exact (existsb_In gl _ _ Hin eq_refl).
Qed.

(* Table::insert of a fresh table / array of tables: the side condition is the node's visibility *)
Definition tbl_after (f : item -> option item) (i : item) : bool :=
  match i, f i with
  | ITable a, Some (ITable b) => vis_side a b
  | _, _ => true
  end.

Lemma tbl_new_wf : tbl_wf false tbl_new.
Proof. apply (proj2 (tbl_wf_eq false [] decor_default false false None None)). split; [apply decor_ok_default|]. split; [constructor|exact I]. Qed.
Lemma tbl_new_entry : iwf KEntry (ITable tbl_new).
Proof. split; [exact tbl_new_wf|]. unfold vis_cond. simpl. left. reflexivity. Qed.
Lemma aot_new_entry : iwf KEntry (IAot [tbl_new] None).
Proof. split; [discriminate|]. split; [|exact I]. split; [reflexivity|exact tbl_new_wf]. Qed.

Lemma op_insert_item_node k x :
  utf8_valid_b k = true -> iwf KEntry x ->
  node_ok (guard (tbl_after (op_insert_item k x)) (op_insert_item k x)).
Proof.
  intros Hk Hx c i i' H Hw. unfold guard in H.
  destruct (tbl_after (op_insert_item k x) i) eqn:S; [|discriminate].
  destruct i as [| |[items d im dt p sp]|]; simpl in H; try discriminate. injection H as <-.
  destruct (tbl_node_parts _ _ _ _ _ _ _ Hw) as [Hn Ha].
  destruct (items_insert_ok true (iwf KEntry) items k x (fun F => F) Hk Hx Hn Ha) as (Hn' & Ha' & _ & _).
  apply (tbl_node_rebuild c items _ d im dt p sp Hw Hn' Ha').
  unfold tbl_after in S. simpl in S. apply vis_side_Rt; [reflexivity|reflexivity|exact S].
Qed.

(* remove: the table must stay as visible; a dotted inline table must keep an entry *)
Definition remove_after (k : bytes) (i : item) : bool :=
  match i, op_remove k i with
  | ITable a, Some (ITable b) => vis_side a b
  | IValue (VInline _ _ _ true _ _), Some (IValue (VInline items' _ _ _ _ _)) =>
    match items' with [] => false | _ => true end
  | _, _ => true
  end.

Lemma op_remove_node k : node_ok (guard (remove_after k) (op_remove k)).
Proof.
  intros c i i' H Hw. unfold guard in H. destruct (remove_after k i) eqn:S; [|discriminate].
  destruct i as [|[sc r d|vals tr cm d sp|items pre im dt d sp]|[items d im dt p sp]|ts sp]; simpl in H; try discriminate;
    injection H as <-.
  - destruct (inline_node_parts _ _ _ _ _ _ _ Hw) as [Hn Ha]. split; [|exact I].
    unfold remove_after in S. simpl in S.
    destruct dt.
    + apply (inline_node_rebuild c items _ pre im true d sp Hw (NoDup_kkeys_remove _ _ Hn)); [|apply all_P_remove; exact Ha].
      intros _ E. rewrite E in S. discriminate.
    + (* a plain inline table may become empty *)
      apply (inline_node_rebuild_plain c items _ pre im d sp Hw (NoDup_kkeys_remove _ _ Hn)).
      apply all_P_remove. exact Ha.
  - destruct (tbl_node_parts _ _ _ _ _ _ _ Hw) as [Hn Ha].
    apply (tbl_node_rebuild c items _ d im dt p sp Hw (NoDup_kkeys_remove _ _ Hn) (all_P_remove _ _ _ Ha)).
    unfold remove_after in S. simpl in S. apply vis_side_Rt; [reflexivity|reflexivity|exact S].
Qed.

(** * Arrays *)

Lemma vdecor_arr_api (vals : list item) :
  vdecor_ok CArr (match vals with
                  | [] => decor_new (raw_of_bytes []) (raw_of_bytes [])
                  | _ => decor_new (raw_of_bytes [x20]) (raw_of_bytes [])
                  end).
Proof. destruct vals; split; simpl; try exact wscn_space; constructor. Qed.

Lemma value_op_decorate_wf vals v : pv_ok v = true -> arr_elem_ok (IValue (value_op_decorate vals (build_value v))).
Proof.
  intro Hv. unfold value_op_decorate. pose proof (vdecor_arr_api vals) as Hd.
  destruct vals; (apply (value_wf_decorate CArr CArr); [apply build_value_wf; exact Hv|exact Hd]).
Qed.

Lemma all_P_vec_insert {A} (Q : A -> Prop) n x (l l' : list A) :
  vec_insert n x l = Some l' -> all_P Q l -> Q x -> all_P Q l'.
Proof.
  revert l l'. induction n as [|n IH]; intros l l' H Ha Hx; simpl in H.
  - injection H as <-. split; assumption.
  - destruct l as [|y l]; [discriminate|]. destruct (vec_insert n x l) as [l1|] eqn:E; simpl in H; [|discriminate].
    injection H as <-. destruct Ha as [Hy Hl]. split; [exact Hy|eapply IH; eauto].
Qed.
Lemma all_P_vec_remove {A} (Q : A -> Prop) n (l : list A) y l' :
  vec_remove n l = Some (y, l') -> all_P Q l -> all_P Q l'.
Proof.
  revert n y l'. induction l as [|z l IH]; intros [|n] y l' H Ha; simpl in H; try discriminate; destruct Ha as [Hz Hl].
  - injection H as <- <-. exact Hl.
  - destruct (vec_remove n l) as [[y1 l1]|] eqn:E; simpl in H; [|discriminate]. injection H as <- <-.
    split; [exact Hz|eapply IH; eauto].
Qed.

Lemma op_arr_push_node v : pv_ok v = true -> node_ok (op_arr_push v).
Proof.
  intros Hv c i i' H Hw.
  destruct i as [|[|vals tr cm d sp|]| |]; simpl in H; try discriminate. injection H as <-.
  split; [|exact I]. apply (array_node_rebuild c vals _ tr cm d sp Hw).
  apply all_P_app. split; [exact (array_node_parts _ _ _ _ _ _ Hw)|]. split; [|exact I].
  apply value_op_decorate_wf. exact Hv.
Qed.

Lemma op_arr_insert_node n v : pv_ok v = true -> node_ok (op_arr_insert n v).
Proof.
  intros Hv c i i' H Hw.
  destruct i as [|[|vals tr cm d sp|]| |]; simpl in H; try discriminate.
  destruct (vec_insert n _ vals) as [vals'|] eqn:E; simpl in H; [|discriminate]. injection H as <-.
  split; [|exact I]. apply (array_node_rebuild c vals _ tr cm d sp Hw).
  eapply all_P_vec_insert; [exact E|exact (array_node_parts _ _ _ _ _ _ Hw)|].
  apply value_op_decorate_wf. exact Hv.
Qed.

Lemma op_arr_replace_node n v : pv_ok v = true -> node_ok (op_arr_replace n v).
Proof.
  intros Hv c i i' H Hw.
  destruct i as [|[|vals tr cm d sp|]| |]; simpl in H; try discriminate.
  destruct (nth_upd n _ vals) as [vals'|] eqn:E; simpl in H; [|discriminate]. injection H as <-.
  split; [|exact I]. apply (array_node_rebuild c vals _ tr cm d sp Hw).
  apply (all_P_nth_upd arr_elem_ok n _ vals vals' E (array_node_parts _ _ _ _ _ _ Hw)).
  intros x x' _ Fx Hx. cbv beta in Fx. destruct x as [|ov| |]; try discriminate. injection Fx as <-.
  simpl. eapply value_wf_redecor; [apply (build_value_wf v Hv CArr)|]. apply (value_wf_decor CArr ov Hx).
Qed.

Lemma op_arr_remove_node n : node_ok (op_arr_remove n).
Proof.
  intros c i i' H Hw.
  destruct i as [|[|vals tr cm d sp|]| |]; simpl in H; try discriminate.
  destruct (vec_remove n vals) as [[y vals']|] eqn:E; [|discriminate].
  destruct y; try discriminate. injection H as <-.
  split; [|exact I]. apply (array_node_rebuild c vals _ tr cm d sp Hw).
  eapply all_P_vec_remove; [exact E|exact (array_node_parts _ _ _ _ _ _ Hw)].
Qed.

(** * Arrays of tables *)

Lemma op_aot_push_node : node_ok op_aot_push.
Proof.
  intros c i i' H Hw. destruct i as [| | |ts sp]; simpl in H; try discriminate. injection H as <-.
  destruct c as [| | |l|]; cbn [iwf] in Hw; try contradiction; try (destruct l; contradiction).
  destruct Hw as [Hn Ha]. split; [|intros _; destruct ts; discriminate].
  split; [destruct ts; discriminate|]. apply all_P_app. split; [exact Ha|].
  split; [|exact I]. split; [reflexivity|exact tbl_new_wf].
Qed.

(* removing an element must leave one *)
Definition aot_remove_after (n : nat) (i : item) : bool :=
  match op_aot_remove n i with Some (IAot [] _) => false | _ => true end.

Lemma op_aot_remove_node n : node_ok (guard (aot_remove_after n) (op_aot_remove n)).
Proof.
  intros c i i' H Hw. unfold guard in H. destruct (aot_remove_after n i) eqn:S; [|discriminate].
  unfold aot_remove_after in S. rewrite H in S.
  destruct i as [| | |ts sp]; simpl in H; try discriminate.
  destruct (vec_remove n ts) as [[y ts']|] eqn:E; simpl in H; [|discriminate]. injection H as <-.
  assert (Hne : ts' <> []) by (destruct ts'; [discriminate|discriminate]).
  destruct c as [| | |l|]; cbn [iwf] in Hw; try contradiction; try (destruct l; contradiction).
  destruct Hw as [Hn Ha]. split; [|intros _; exact Hne]. split; [exact Hne|].
  eapply all_P_vec_remove; eauto.
Qed.

(** * fmt *)

Lemma kkeys_decorate m : kkeys (decorate_items m) = kkeys m.
Proof.
  unfold kkeys, decorate_items. rewrite map_map. apply map_ext. intros [k i]. destruct i; reflexivity.
Qed.

Lemma decorate_gl m : existsb gl (decorate_items m) = existsb gl m.
Proof.
  unfold decorate_items. induction m as [|[k i] m IH]; simpl; [reflexivity|]. rewrite IH.
  destruct i; reflexivity.
Qed.
Lemma decorate_gp m : existsb gp (decorate_items m) = existsb gp m.
Proof.
  unfold decorate_items. induction m as [|[k i] m IH]; simpl; [reflexivity|]. rewrite IH.
  destruct i; reflexivity.
Qed.

Lemma key_wf_cleared line k : key_wf line k -> key_wf line (mkKey (k_key k) (k_repr k) decor_default decor_default).
Proof. intros (Hr & _ & _). split; [exact Hr|]. split; apply decor_ok_default. Qed.

Lemma pair_wf_clear line v : pair_wf line (IValue v) -> pair_wf line (IValue (value_clear_decor v)).
Proof.
  destruct v as [| |items pre im [|] d sp]; simpl; try tauto;
    intro H; pose proof (vdecor_ok_default (if line then CLine else CInl)); tauto.
Qed.

(* in a table or an inline table alike: the values lose their decor, the other entries stay *)
Lemma decorate_kv_ok L (P : item -> Prop) m :
  (forall v, P (IValue v) -> P (IValue (value_clear_decor v))) ->
  all_P (kv_ok L P) m -> all_P (kv_ok L P) (decorate_items m).
Proof.
  intros Hc Ha. unfold decorate_items. apply all_P_map. eapply all_P_impl; [|exact Ha].
  intros [k i] [Hk Hi]. destruct i as [|v| |]; try (split; assumption).
  split; [apply key_wf_cleared; exact Hk|exact (Hc v Hi)].
Qed.

Lemma decorate_elems_ok first l : all_P arr_elem_ok l -> all_P arr_elem_ok (decorate_elems first l).
Proof.
  revert first. induction l as [|x l IH]; intros first Ha; simpl; [exact I|]. destruct Ha as [Hx Hl].
  destruct x as [|v| |]; try contradiction. split; [|apply IH; exact Hl].
  eapply value_wf_decorate; [exact Hx|]. destruct first; split; simpl; try exact wscn_space; constructor.
Qed.

Lemma op_fmt_node : node_ok op_fmt.
Proof.
  intros c i i' H Hw.
  destruct i as [|[sc r d|vals tr cm d sp|items pre im dt d sp]|[items d im dt p sp]|ts sp]; simpl in H; try discriminate;
    injection H as <-.
  - split; [|exact I].
    assert (Hv : forall cc, value_wf cc (VArray vals tr cm d sp) ->
                            value_wf cc (VArray (decorate_elems true vals) REmpty false d sp)).
    { intros cc (Hd & _ & Ha). split; [exact Hd|]. split; [apply (raw_ok_empty SWscn)|apply decorate_elems_ok; exact Ha]. }
    destruct c as [| | |l|];
      [exfalso; exact Hw|exact (Hv CLine Hw)|exfalso; exact Hw
       |destruct l; [exact (Hv CLine Hw)|exact (Hv CInl Hw)]|exact (Hv CArr Hw)].
  - destruct (inline_node_parts _ _ _ _ _ _ _ Hw) as [Hn Ha]. split; [|exact I].
    apply (inline_node_rebuild c items _ pre im dt d sp Hw).
    + rewrite kkeys_decorate. exact Hn.
    + apply kkeys_nonnil, kkeys_decorate.
    + exact (decorate_kv_ok _ _ items (pair_wf_clear _) Ha).
  - destruct (tbl_node_parts _ _ _ _ _ _ _ Hw) as [Hn Ha].
    apply (tbl_node_rebuild c items _ d im dt p sp Hw).
    + rewrite kkeys_decorate. exact Hn.
    + exact (decorate_kv_ok true (iwf KEntry) items (pair_wf_clear true) Ha).
    + apply vis_side_Rt; [reflexivity|reflexivity|].
      unfold vis_side, hl, ph, shown. simpl t_dotted. simpl t_implicit.
      rewrite !has_line_eq, !prints_header_eq, decorate_gl, decorate_gp.
      destruct (dt && existsb gl items), (negb dt && negb (im && negb (existsb gl items)) || existsb gp items); reflexivity.
Qed.

(** * Conversions stored back in the slot *)

(* an entry of an inline table may stand on a key/value line *)
Lemma pair_wf_line : forall i, pair_wf false i -> pair_wf true i.
Proof.
  pose (Pi := fun i => pair_wf false i -> pair_wf true i).
  pose (Pv := fun v => Pi (IValue v)).
  pose (Pt := fun _ : tbl => True).
  apply (item_ind4 Pv Pi Pt); unfold Pv, Pi, Pt; try (intros; exact I); try (intros; contradiction).
  - intros s r d H. exact (value_wf_inl_line (VScalar s r d) H).
  - intros vals tr c d sp _ H. exact (value_wf_inl_line (VArray vals tr c d sp) H).
  - intros items pre im dt d sp IH H. destruct dt.
    + simpl in *. destruct H as (Hne & Hn & Ha). split; [exact Hne|]. split; [exact Hn|].
      rewrite Forall_forall in IH. apply all_P_forall. intros [k i] Hin.
      destruct (all_P_In _ _ _ Ha Hin) as [Hk Hi]. split; [apply key_wf_line; exact Hk|exact (IH _ Hin Hi)].
    + exact (value_wf_inl_line (VInline items pre im false d sp) H).
  - intros v H. exact H.
Qed.

(* the entries of an inline table as the entries of a table section (Table::with_pairs + fmt) *)
Lemma inline_entries_as_table L m :
  all_P (pair_ok L) m -> all_P entry_ok (decorate_items m).
Proof.
  intro Ha. unfold decorate_items. apply all_P_map. eapply all_P_impl; [|exact Ha].
  intros [k i] [Hk Hi]. destruct i as [|v| |]; try (destruct L; contradiction).
  split; [apply key_wf_cleared; destruct L; [exact Hk|apply key_wf_line; exact Hk]|].
  apply (pair_wf_clear true v). destruct L; [exact Hi|apply pair_wf_line; exact Hi].
Qed.

Lemma inline_into_table_wf L items : NoDup (kkeys items) -> all_P (pair_ok L) items ->
  tbl_wf false (inline_into_table items) /\ vis_cond (inline_into_table items).
Proof.
  intros Hn Ha. split.
  - apply (proj2 (tbl_wf_eq false _ _ _ _ _ _)). split; [apply decor_ok_default|].
    split; [rewrite kkeys_decorate; exact Hn|eapply inline_entries_as_table; exact Ha].
  - unfold vis_cond. simpl. left. reflexivity.
Qed.

Lemma into_table_slot_wf i : iwf KEntry i -> iwf KEntry (into_table_slot i).
Proof.
  intro Hw. destruct i as [|[s r d|vals tr c d sp|items pre im dt d sp]|t|ts sp]; try exact Hw.
  destruct (inline_node_parts KEntry items pre im dt d sp Hw) as [Hn Ha].
  exact (inline_into_table_wf (inline_line KEntry dt) items Hn Ha).
Qed.

Lemma into_aot_elems_wf vals :
  all_P arr_elem_ok vals -> forallb is_inline_item vals = true ->
  all_P (fun e => t_dotted e = false /\ tbl_wf false e)
        (flat_map (fun e => match e with
                            | IValue (VInline items _ _ _ _ _) => [inline_into_table items]
                            | _ => []
                            end) vals).
Proof.
  induction vals as [|x vals IH]; intros Ha Hf; [exact I|].
  destruct Ha as [Hx Hl]. simpl in Hf. apply andb_true_iff in Hf as [Hi Hr].
  destruct x as [|[| |items pre im dt d sp]| |]; try discriminate.
  simpl. split; [|apply IH; assumption]. split; [reflexivity|].
  destruct (inline_node_parts KArr items pre im dt d sp Hx) as [Hn Hp].
  exact (proj1 (inline_into_table_wf (inline_line KArr dt) items Hn Hp)).
Qed.

Lemma into_aot_slot_wf i : iwf KEntry i -> iwf KEntry (into_aot_slot i).
Proof.
  intro Hw. destruct i as [|[s r d|vals tr c d sp|items pre im dt d sp]|t|ts sp]; try exact Hw.
  unfold into_aot_slot. destruct vals as [|x vals]; [exact Hw|].
  destruct (forallb is_inline_item (x :: vals)) eqn:F; [|exact Hw].
  pose proof (array_node_parts KEntry (x :: vals) tr c d sp Hw) as Ha.
  split; [|apply into_aot_elems_wf; assumption].
  simpl in F. apply andb_true_iff in F as [Hi _].
  destruct x as [|[| |items pre im dt d0 sp0]| |]; try discriminate.
Qed.

(* the slot operations: the entry must convert to a well-formed entry, the table must stay as visible *)
Definition slot_after (k : bytes) (conv : item -> item) (good : item -> bool) (i : item) : bool :=
  tbl_after (op_slot k (fun e => Some (conv e))) i
  && match i with
     | ITable (Tbl items _ _ _ _ _) => match kv_get items k with Some (_, e) => good e | None => true end
     | _ => true
     end.

Lemma op_slot_node k conv good :
  (forall e, iwf KEntry e -> good e = true -> iwf KEntry (conv e)) ->
  node_ok (guard (slot_after k conv good) (op_slot k (fun e => Some (conv e)))).
Proof.
  intros Hc c i i' H Hw. unfold guard in H. destruct (slot_after k conv good i) eqn:S; [|discriminate].
  apply andb_true_iff in S as [S1 S2].
  destruct i as [| |[items d im dt p sp]|]; simpl in H; try discriminate.
  destruct (kv_upd k _ items) as [items'|] eqn:E; simpl in H; [|discriminate]. injection H as <-.
  destruct (tbl_node_parts _ _ _ _ _ _ _ Hw) as [Hn Ha].
  apply (tbl_node_rebuild c items items' d im dt p sp Hw).
  - rewrite (kv_upd_keys _ _ _ _ E). exact Hn.
  - apply (all_P_kv_upd entry_ok k _ items items' E Ha).
    intros k' e e' G Fe [Hk He]. cbv beta in Fe. destruct (item_is_none e); [discriminate|]. injection Fe as <-.
    split; [exact Hk|]. apply Hc; [exact He|]. rewrite G in S2. exact S2.
  - unfold tbl_after in S1. simpl in S1. rewrite E in S1. simpl in S1.
    apply vis_side_Rt; [reflexivity|reflexivity|exact S1].
Qed.

(* -- make_value: everything below becomes inline; a dotted inline table (flattened into key/value
      lines, its keys may carry comments) cannot be carried over -- *)
Fixpoint mv_ok (i : item) : bool :=
  match i with
  | INone => false
  | IValue v => negb (is_dotted_inl (IValue v))
  | ITable t => tbl_mv_ok t
  | IAot ts _ => forallb tbl_mv_ok ts
  end
with tbl_mv_ok (t : tbl) : bool :=
  match t with Tbl items _ _ _ _ _ => forallb (fun kv => match kv with (_, i) => mv_ok i end) items end.
(* the slot itself: a value stays what it is *)
Definition mv_good (e : item) : bool := match e with IValue _ => true | _ => mv_ok e end.

Lemma clear_not_dotted v : is_dotted_inl (IValue v) = false -> is_dotted_inl (IValue (value_clear_decor v)) = false.
Proof. destruct v as [| |items pre im [|] d sp]; simpl; auto. Qed.

Lemma make_value_wf :
  (forall i, iwf KEntry i -> mv_ok i = true ->
             exists v', make_value i = IValue v' /\ is_dotted_inl (IValue v') = false /\ value_wf CLine v') /\
  (forall t b, tbl_wf b t -> tbl_mv_ok t = true -> forall c, value_wf c (tbl_into_inline t)).
Proof.
  pose (Pi := fun i => iwf KEntry i -> mv_ok i = true ->
                       exists v', make_value i = IValue v' /\ is_dotted_inl (IValue v') = false /\ value_wf CLine v').
  pose (Pt := fun t => forall b, tbl_wf b t -> tbl_mv_ok t = true -> forall c, value_wf c (tbl_into_inline t)).
  pose (Pv := fun _ : value => True).
  assert (Htb : forall items d im dt p sp,
             Forall (fun kv => Pi (snd kv)) items -> Pt (Tbl items d im dt p sp)).
  { intros items d im dt p sp IH b Hw Hm c. apply tbl_wf_eq in Hw as (_ & Hn & Ha).
    cbn [tbl_into_inline]. unfold inline_with_pairs_fmt. cbn [tbl_mv_ok] in Hm.
    simpl. split; [apply vdecor_ok_default|]. split; [apply (raw_ok_empty SWs)|]. split.
    - rewrite kkeys_decorate. unfold kkeys in *. rewrite map_map.
      replace (map (fun x : key * item => k_key (fst (let (k, i) := x in (k, make_value i)))) items)
        with (map (fun kv : key * item => k_key (fst kv)) items); [exact Hn|].
      apply map_ext. intros [k i]. reflexivity.
    - unfold decorate_items. rewrite map_map. apply all_P_map. apply all_P_forall. intros [k i] Hin.
      rewrite Forall_forall in IH. rewrite forallb_forall in Hm.
      destruct (all_P_In _ _ _ Ha Hin) as [Hk Hi].
      destruct (IH _ Hin Hi (Hm _ Hin)) as (v' & E & Hd & Hv). simpl in E. cbn [fst snd]. rewrite E. cbn [fst snd].
      split; [destruct Hk as (Hr & _ & _); split; [exact Hr|split; apply decor_ok_default]|].
      apply (pair_wf_value false _ (clear_not_dotted v' Hd)). apply (value_wf_clear CLine CInl v' Hv). }
  assert (Hi : forall i, Pi i).
  { apply (item_ind4 Pv Pi Pt); unfold Pv, Pi; try (intros; exact I).
    - intros H _. contradiction.
    - intros v _ Hw Hm. exists v. split; [reflexivity|]. simpl in Hm. apply negb_true_iff in Hm.
      split; [exact Hm|]. apply (pair_wf_value true v Hm). exact Hw.
    - intros t IH [Hw _] Hm. exists (tbl_into_inline t). split; [reflexivity|].
      split; [destruct t; reflexivity|]. exact (IH false Hw Hm CLine).
    - intros ts sp IH [Hne Ha] Hm. cbn [make_value mv_ok] in *. eexists. split; [reflexivity|].
      split; [reflexivity|]. unfold array_with_vec_fmt. simpl.
      split; [apply decor_ok_default|]. split; [constructor|].
      apply decorate_elems_ok. apply all_P_map. apply all_P_forall. intros e Hin.
      rewrite Forall_forall in IH. rewrite forallb_forall in Hm.
      exact (IH e Hin false (proj2 (all_P_In _ _ _ Ha Hin)) (Hm e Hin) CArr).
    - exact Htb. }
  split; [exact Hi|].
  intros [items d im dt p sp]. apply Htb. rewrite Forall_forall. intros kv _. apply Hi.
Qed.

Lemma make_value_slot_wf e : iwf KEntry e -> mv_good e = true -> iwf KEntry (make_value e).
Proof.
  intros Hw Hg. destruct e as [|v|t|ts sp]; try exact Hw.
  - destruct (proj1 make_value_wf (ITable t) Hw Hg) as (v' & E & Hd & Hv). rewrite E.
    apply (pair_wf_value true v' Hd). exact Hv.
  - destruct (proj1 make_value_wf (IAot ts sp) Hw Hg) as (v' & E & Hd & Hv). rewrite E.
    apply (pair_wf_value true v' Hd). exact Hv.
Qed.

(** * sort_values / sort_values_by: whatever the order, the entries are permuted *)
From Coq Require Import Sorting.Permutation.

Lemma all_P_perm {A} (Q : A -> Prop) l l' : Permutation l l' -> all_P Q l' -> all_P Q l.
Proof.
  intros Hp Ha. apply all_P_forall. intros x Hx. apply (all_P_In Q l' x Ha). eapply Permutation_in; eauto.
Qed.
Lemma existsb_perm {A} (g : A -> bool) l l' : Permutation l l' -> existsb g l = existsb g l'.
Proof.
  induction 1; simpl; try congruence.
  - destruct (g y), (g x); reflexivity.
Qed.
Lemma NoDup_kkeys_perm m m' : Permutation m m' -> NoDup (kkeys m') -> NoDup (kkeys m).
Proof. intros Hp Hn. eapply Permutation_NoDup; [|exact Hn]. apply Permutation_map. symmetry. exact Hp. Qed.
Lemma perm_nonnil {A} (l l' : list A) : Permutation l l' -> l' <> [] -> l <> [].
Proof. intros Hp Hn ->. apply Hn. apply Permutation_nil. exact Hp. Qed.

Section SortWF.
  Variables (tsrt vsrt : kvs -> kvs) (tsort : tbl -> tbl) (vsort : value -> value).
  Hypothesis Ht : sorts_tbl tsrt tsort.
  Hypothesis Hv : sorts_inline vsrt vsort.
  Hypothesis tsrt_perm : forall m, Permutation (tsrt m) m.
  Hypothesis vsrt_perm : forall m, Permutation (vsrt m) m.

  Lemma kkeys_tchild m : kkeys (map (tchild tsort) m) = kkeys m.
  Proof. unfold kkeys. rewrite map_map. apply map_ext. intros [k i]. reflexivity. Qed.
  Lemma kkeys_vchild m : kkeys (map (vchild vsort) m) = kkeys m.
  Proof. unfold kkeys. rewrite map_map. apply map_ext. intros [k i]. reflexivity. Qed.

  (* sorting keeps a table well-formed in any slot and exactly as visible *)
  Definition sort_tbl_ok (t : tbl) : Prop :=
    (forall b, tbl_wf b t -> tbl_wf b (tsort t))
    /\ has_line (tsort t) = has_line t
    /\ prints_header (tsort t) = prints_header t
    /\ t_dotted (tsort t) = t_dotted t /\ t_implicit (tsort t) = t_implicit t.

  Lemma sort_tbl_wf t : sort_tbl_ok t.
  Proof.
    revert t. apply (dotted_ind (fun _ => True) sort_tbl_ok); try (intros; exact I).
    intros items d im dt p sp IH.
    (* a child contributes to has_line / prints_header what it did before *)
    assert (Hc : forall kv, In kv items -> gl (tchild tsort kv) = gl kv /\ gp (tchild tsort kv) = gp kv).
    { intros [k i] Hin. specialize (IH _ _ Hin). unfold gl, gp.
      destruct i as [|v|[m0 d0 im0 [|] p0 sp0]|]; simpl; try (split; reflexivity).
      destruct IH as (_ & Hl & Hp & Hd & Hi). unfold hl, ph, shown. rewrite Hl, Hp, Hd, Hi. split; reflexivity. }
    assert (Hex : forall g, (forall kv, In kv items -> g (tchild tsort kv) = g kv) ->
                            existsb g (tsrt (map (tchild tsort) items)) = existsb g items).
    { intros g Hg. rewrite (existsb_perm g _ _ (tsrt_perm _)).
      clear -Hg. induction items as [|x l IHl]; simpl; [reflexivity|].
      rewrite Hg by (left; reflexivity). rewrite IHl; [reflexivity|]. intros. apply Hg. right. assumption. }
    unfold sort_tbl_ok. rewrite Ht. split; [|split; [|split; [|split; reflexivity]]].
    - intros b Hw. rewrite Ht. apply tbl_wf_eq in Hw as (Hd & Hn & Ha). apply tbl_wf_eq. split; [exact Hd|]. split.
      + apply (NoDup_kkeys_perm _ _ (tsrt_perm _)). rewrite kkeys_tchild. exact Hn.
      + apply (all_P_perm _ _ _ (tsrt_perm _)). apply all_P_map. apply all_P_forall. intros [k i] Hin.
        destruct (all_P_In _ _ _ Ha Hin) as [Hk Hi]. split; [exact Hk|]. simpl.
        specialize (IH _ _ Hin). destruct i as [|v|[m0 d0 im0 [|] p0 sp0]|]; try exact Hi.
        destruct IH as (Hwf & Hl & Hph & Hdd & _). destruct Hi as [Hs Hvis]. split; [apply Hwf; exact Hs|].
        unfold vis_cond in *. rewrite Hdd, Hl, Hph. exact Hvis.
    - rewrite !has_line_eq. apply Hex. intros kv Hin. exact (proj1 (Hc kv Hin)).
    - rewrite !prints_header_eq. apply Hex. intros kv Hin. exact (proj2 (Hc kv Hin)).
  Qed.

  (* sorting keeps an inline table well-formed in any slot *)
  Definition sort_inline_ok (v : value) : Prop :=
    (forall c, value_wf c v -> value_wf c (vsort v))
    /\ (forall line, pair_wf line (IValue v) -> pair_wf line (IValue (vsort v))).

  Lemma sort_inline_wf v : sort_inline_ok v.
  Proof.
    revert v. apply (dotted_ind sort_inline_ok (fun _ => True)); try (intros; exact I).
    - intros s r d. unfold sort_inline_ok. rewrite Hv. split; intros; assumption.
    - intros vals tr c d sp. unfold sort_inline_ok. rewrite Hv. split; intros; assumption.
    - intros items pre im dt d sp IH. unfold sort_inline_ok. rewrite Hv.
      set (items' := vsrt (map (vchild vsort) items)).
      assert (Hall : forall L, all_P (fun kv => key_wf L (fst kv) /\ pair_wf L (snd kv)) items ->
                               all_P (fun kv => key_wf L (fst kv) /\ pair_wf L (snd kv)) items').
      { intros L Ha. apply (all_P_perm _ _ _ (vsrt_perm _)). apply all_P_map. apply all_P_forall.
        intros [k i] Hin. destruct (all_P_In _ _ _ Ha Hin) as [Hk Hi]. split; [exact Hk|]. simpl.
        specialize (IH _ _ Hin). destruct i as [|[| |items0 pre0 im0 [|] d0 sp0]| |]; try exact Hi.
        exact (proj2 IH L Hi). }
      assert (Hnd : NoDup (kkeys items) -> NoDup (kkeys items')).
      { intro Hn. apply (NoDup_kkeys_perm _ _ (vsrt_perm _)). rewrite kkeys_vchild. exact Hn. }
      assert (Hne : items <> [] -> items' <> []).
      { intro Hn. apply (perm_nonnil _ _ (vsrt_perm _)). destruct items; [contradiction|discriminate]. }
      assert (Hval : forall c, value_wf c (VInline items pre im dt d sp) -> value_wf c (VInline items' pre im dt d sp)).
      { intros c (H1 & H2 & H3 & H4). split; [exact H1|]. split; [exact H2|]. split; [apply Hnd; exact H3|apply Hall; exact H4]. }
      split; [exact Hval|]. intros line H. destruct dt.
      + simpl in *. destruct H as (H1 & H2 & H3). split; [apply Hne; exact H1|]. split; [apply Hnd; exact H2|apply Hall; exact H3].
      + exact (Hval _ H).
  Qed.

  Lemma sort_op_node okt okv : node_ok (sort_op okt okv tsort vsort).
  Proof.
    intros c i i' H Hw.
    destruct i as [|[sc r d|vals tr cm d sp|items pre im dt d sp]|t|ts sp]; simpl in H; try discriminate.
    - destruct (okv _); [|discriminate]. injection H as <-. split; [|exact I].
      destruct (sort_inline_wf (VInline items pre im dt d sp)) as [Hval Hp].
      destruct c as [| | |l|]; [exfalso; exact Hw|exact (Hp true Hw)|exfalso; exact Hw|exact (Hp l Hw)|exact (Hval CArr Hw)].
    - destruct (okt t); [|discriminate]. injection H as <-.
      destruct (sort_tbl_wf t) as (Hwf & Hl & Hp & Hd & Hi).
      assert (Hr : Rt t (tsort t)).
      { unfold Rt, hl, ph, shown. rewrite Hl, Hp, Hd, Hi. repeat split; auto. }
      split; [|exact Hr].
      destruct c as [| | |l|]; cbn [iwf] in *; try contradiction.
      + apply Hwf. exact Hw.
      + destruct Hw as [Hw Hvis]. split; [apply Hwf; exact Hw|exact (vis_cond_keep _ _ Hvis Hr)].
      + destruct Hw as [Hdt Hw]. split; [rewrite Hd; exact Hdt|apply Hwf; exact Hw].
  Qed.
End SortWF.

Lemma op_sort_node : node_ok op_sort.
Proof.
  intros c i i' H. rewrite op_sort_eq in H. revert c i i' H.
  exact (sort_op_node _ _ _ _ sort_values_tbl sort_values_inline kv_sort_keys_perm kv_sort_keys_perm _ _).
Qed.
Lemma op_sort_by_node cm : node_ok (op_sort_by cm).
Proof.
  intros c i i' H. rewrite op_sort_by_eq in H. revert c i i' H.
  exact (sort_op_node _ _ _ _ (sort_by_tbl cm) (sort_by_inline cm) (kv_sort_by_perm _) (kv_sort_by_perm _) _ _).
Qed.

(* the representation invariant `tbl_is_map` / `inline_is_map` under which Model/Edit.v defines sort_values_by holds
   for every well-formed node (Spec/WF.v asks for distinct keys everywhere): on well-formed trees sort_values_by is
   defined exactly where sort_values is *)
Lemma NoDup_keys_distinct l : NoDup l -> keys_distinct l = true.
Proof.
  induction 1 as [|k l Hn _ IH]; [reflexivity|]. cbn [keys_distinct]. rewrite IH, andb_true_r. apply negb_true_iff.
  destruct (existsb (bytes_eqb k) l) eqn:E; [|reflexivity]. exfalso. apply Hn.
  apply existsb_exists in E as (y & Hy & Ey). apply bytes_eqb_eq in Ey. subst y. exact Hy.
Qed.

Lemma wf_is_map :
  (forall v, (forall c, value_wf c v -> inline_is_map v = true)
             /\ (forall line, pair_wf line (IValue v) -> inline_is_map v = true))
  /\ (forall t b, tbl_wf b t -> tbl_is_map t = true).
Proof.
  apply dotted_ind.
  - intros s r d. split; reflexivity.
  - intros vals tr c d sp. split; reflexivity.
  - intros items pre im dt d sp IH.
    assert (G : forall L, NoDup (kkeys items) -> all_P (fun kv => key_wf L (fst kv) /\ pair_wf L (snd kv)) items ->
                          inline_is_map (VInline items pre im dt d sp) = true).
    { intros L Hn Ha. rewrite inline_is_map_eq. apply andb_true_iff. split; [exact (NoDup_keys_distinct _ Hn)|].
      apply forallb_forall. intros [k i] Hin. cbn [snd]. specialize (IH _ _ Hin).
      destruct i as [|[| |items0 pre0 im0 [|] d0 sp0]| |]; try reflexivity.
      destruct (all_P_In _ _ _ Ha Hin) as [_ Hp]. exact (proj2 IH L Hp). }
    split.
    + intros c (_ & _ & Hn & Ha). exact (G false Hn Ha).
    + intros line H. destruct dt.
      * simpl in H. destruct H as (_ & Hn & Ha). exact (G line Hn Ha).
      * destruct H as (_ & _ & Hn & Ha). exact (G false Hn Ha).
  - intros items d im dt p sp IH b Hw. apply tbl_wf_eq in Hw as (_ & Hn & Ha).
    rewrite tbl_is_map_eq. apply andb_true_iff. split; [exact (NoDup_keys_distinct _ Hn)|].
    apply forallb_forall. intros [k i] Hin. cbn [snd]. specialize (IH _ _ Hin).
    destruct i as [|v|[m0 d0 im0 [|] p0 sp0]|]; try reflexivity.
    destruct (all_P_In _ _ _ Ha Hin) as [_ Hi]. cbn [snd iwf] in Hi. exact (IH false (proj1 Hi)).
Qed.

Lemma op_sort_by_defined cm c i : iwf c i -> (op_sort_by cm i = None <-> op_sort i = None).
Proof.
  intro Hw. destruct i as [|[sc r d|vals tr c0 d sp|items pre im dt d sp]|t|ts sp]; try (split; reflexivity).
  - set (v := VInline items pre im dt d sp) in *. assert (E : inline_is_map v = true).
    { destruct (proj1 wf_is_map v) as [Hv Hp].
      destruct c as [| | |l|]; [exfalso; exact Hw|exact (Hp true Hw)|exfalso; exact Hw|exact (Hp l Hw)|exact (Hv CArr Hw)]. }
    unfold op_sort_by, op_sort. fold v. rewrite E. split; discriminate.
  - assert (E : tbl_is_map t = true).
    { destruct c as [| | |l|]; cbn [iwf] in Hw; try contradiction.
      - exact (proj2 wf_is_map t true Hw).
      - exact (proj2 wf_is_map t false (proj1 Hw)).
      - exact (proj2 wf_is_map t false (proj2 Hw)). }
    unfold op_sort_by, op_sort. rewrite E. split; discriminate.
Qed.

(** * IndexMut: doc[k1]...[kn] = x *)

Definition is_value_pay (x : ipay) : bool := match x with IPValue _ => true | IPTable => false end.
Definition ipay_ok (x : ipay) : bool := match x with IPValue v => pv_ok v | IPTable => true end.

(* the side condition along the walk: a table may only be stored under a table (never under an
   inline table, existing or auto-vivified), and every table on the way stays as visible *)
Fixpoint iset_side (ks : list bytes) (x : ipay) (it : item) : bool :=
  match ks with
  | [] => true
  | k :: ks' =>
    match it with
    | INone => is_value_pay x
    | ITable (Tbl items _ _ _ _ _) =>
      (match ks' with [] => true | _ => iset_side ks' x (snd (entry_or_none items k)) end)
      && tbl_after (iset ks (build_item x)) it
    | IValue (VInline items _ _ _ _ _) =>
      match ks' with [] => is_value_pay x | _ => iset_side ks' x (snd (entry_or_none items k)) end
    | _ => true
    end
  end.

Lemma entry_or_none_wf items k :
  (forall k' i, In (k', i) items -> i <> INone) ->
  entry_or_none items k = match kv_get items k with
                          | Some (_, i) => (items, i)
                          | None => (kv_push items (key_new k) INone, INone)
                          end.
Proof. intro H. unfold entry_or_none. rewrite (kv_purge_noop items k H). reflexivity. Qed.

(* the slot handed out under a container without placeholders: an entry of it, or a fresh placeholder *)
Lemma entry_or_none_slot (Q : item -> Prop) items k :
  (forall k' i, In (k', i) items -> i <> INone) -> (forall k' i, In (k', i) items -> Q i) ->
  snd (entry_or_none items k) = INone \/ Q (snd (entry_or_none items k)).
Proof.
  intros Hnn Hq. rewrite (entry_or_none_wf items k Hnn).
  destruct (kv_get items k) as [[k' i]|] eqn:G; [right; exact (Hq k' i (kv_get_In _ _ _ _ G))|left; reflexivity].
Qed.

(* the entries after `t[k] = slot'`: the entry under k keeps its key, a new one comes last *)
Lemma slot_store_ok L P items k slot' :
  ~ P INone -> utf8_valid_b k = true -> P slot' -> NoDup (kkeys items) -> all_P (kv_ok L P) items ->
  NoDup (kkeys (kv_set (fst (entry_or_none items k)) k slot')) /\
  all_P (kv_ok L P) (kv_set (fst (entry_or_none items k)) k slot') /\
  kv_set (fst (entry_or_none items k)) k slot' <> [].
Proof.
  intros Hp Hk Hsl Hn Ha. rewrite (entry_or_none_wf items k (kv_ok_no_none L P items Hp Ha)).
  destruct (kv_get items k) as [[k' i]|] eqn:G; cbn [fst].
  - split; [rewrite kkeys_set; exact Hn|]. split; [|exact (kv_set_nonempty _ _ _ _ _ G)].
    apply all_P_set_gen; [exact Ha|]. intros k1 old _ Hold. split; [exact (proj1 Hold)|exact Hsl].
  - rewrite (kv_set_push_none items (key_new k) INone slot' G : kv_set (kv_push items (key_new k) INone) k slot' = _).
    split; [apply NoDup_kkeys_push; assumption|]. split; [|apply push_nonnil].
    apply all_P_push; [exact Ha|]. split; [apply key_wf_new; exact Hk|exact Hsl].
Qed.

Lemma build_item_value_wf x c : is_value_pay x = true -> ipay_ok x = true ->
  exists v, build_item x = IValue v /\ is_dotted_inl (IValue v) = false /\ value_wf c v.
Proof.
  destruct x as [v|]; [|discriminate]. intros _ Hp. exists (build_value v).
  split; [reflexivity|]. split; [apply build_value_not_dotted|apply build_value_wf; exact Hp].
Qed.

(* below a missing entry everything is created as (plain) inline tables *)
Lemma iset_none_wf x : is_value_pay x = true -> ipay_ok x = true ->
  forall ks it', ks <> [] -> forallb utf8_valid_b ks = true ->
  iset ks (build_item x) INone = Some it' ->
  exists v, it' = IValue v /\ is_dotted_inl (IValue v) = false /\ value_wf CInl v.
Proof.
  intros Hv Hp. induction ks as [|k ks IH]; intros it' Hne Hu H; [contradiction|].
  simpl in Hu. apply andb_true_iff in Hu as [Hk Hu].
  rewrite iset_none in H.
  destruct (iset ks (build_item x) INone) as [slot'|] eqn:E; simpl in H; [|discriminate]. injection H as <-.
  eexists. split; [reflexivity|]. split; [reflexivity|].
  assert (Hs : pair_wf false slot').
  { destruct ks as [|k2 ks2].
    - simpl in E. injection E as <-. destruct (build_item_value_wf x CInl Hv Hp) as (v & -> & Hd & Hw).
      apply (pair_wf_value false v Hd). exact Hw.
    - destruct (IH slot' ltac:(discriminate) Hu eq_refl) as (v & -> & Hd & Hw).
      apply (pair_wf_value false v Hd). exact Hw. }
  simpl. split; [apply decor_ok_default|]. split; [exact ws_nil|]. split; [repeat constructor; simpl; tauto|].
  split; [|exact I]. split; [apply key_wf_new; exact Hk|exact Hs].
Qed.

Lemma iset_wf x : ipay_ok x = true ->
  forall ks c it it', forallb utf8_valid_b ks = true ->
  iset ks (build_item x) it = Some it' -> ks <> [] -> iwf c it -> iset_side ks x it = true ->
  iwf c it' /\ Ri it it'.
Proof.
  intros Hp. induction ks as [|k ks IH]; intros c it it' Hu H Hne Hw Hs; [contradiction|].
  simpl in Hu. apply andb_true_iff in Hu as [Hk Hu].
  (* what is stored under k afterwards, in a slot whose entries live in context cc *)
  assert (Hslot : forall cc slot slot', iset ks (build_item x) slot = Some slot' ->
                    (slot = INone \/ iwf cc slot) ->
                    (cc = KEntry \/ exists L, cc = KPair L) ->
                    match ks with
                    | [] => match cc with KEntry => true | _ => is_value_pay x end
                    | _ => iset_side ks x slot
                    end = true ->
                    iwf cc slot').
  { intros cc slot slot' E Hsl Hcc Hside. destruct ks as [|k2 ks2].
    - simpl in E. injection E as <-.
      destruct Hcc as [->|[L ->]].
      + destruct x as [v|]; [|exact tbl_new_entry]. simpl.
        apply (pair_wf_value true _ (build_value_not_dotted v)). apply build_value_wf. exact Hp.
      + destruct (build_item_value_wf x (if L then CLine else CInl) Hside Hp) as (v & -> & Hd & Hv).
        apply (pair_wf_value L v Hd). exact Hv.
    - destruct Hsl as [->|Hsl].
      + simpl in Hside.
        destruct (iset_none_wf x Hside Hp (k2 :: ks2) slot' ltac:(discriminate) Hu E) as (v & -> & Hd & Hv).
        destruct Hcc as [->|[L ->]].
        * apply (pair_wf_value true v Hd). apply value_wf_inl_line. exact Hv.
        * apply (pair_wf_value L v Hd). destruct L; [apply value_wf_inl_line|]; exact Hv.
      + exact (proj1 (IH cc slot slot' Hu E ltac:(discriminate) Hsl Hside)). }
  cbn [iset_side] in Hs.
  destruct it as [|[sc r d|vals tr cm d sp|items pre im dt d sp]|[items d im dt p sp]|ts sp]; try discriminate.
  - exfalso. destruct c as [| | |l|]; try destruct l; exact Hw.
  - (* inline table *)
    destruct (inline_node_parts _ _ _ _ _ _ _ Hw) as [Hn Ha]. set (L := inline_line c dt) in *.
    pose proof (kv_ok_no_none L _ items (fun F => F) Ha) as Hnn.
    rewrite iset_inline in H.
    destruct (iset ks (build_item x) _) as [slot'|] eqn:E; simpl in H; [|discriminate]. injection H as <-.
    split; [|exact I].
    assert (Hsl : iwf (KPair L) slot').
    { apply (Hslot (KPair L) _ slot' E); [|right; exists L; reflexivity|destruct ks; exact Hs].
      exact (entry_or_none_slot _ items k Hnn (fun k' i Hin => proj2 (all_P_In _ _ _ Ha Hin))). }
    destruct (slot_store_ok L _ items k slot' (fun F => F) Hk Hsl Hn Ha) as (Hn' & Ha' & Hne').
    exact (inline_node_rebuild c items _ pre im dt d sp Hw Hn' (fun _ => Hne') Ha').
  - (* table *)
    destruct (tbl_node_parts _ _ _ _ _ _ _ Hw) as [Hn Ha].
    pose proof (kv_ok_no_none true _ items (fun F => F) Ha) as Hnn.
    apply andb_true_iff in Hs as [Hs Hvis]. unfold tbl_after in Hvis. rewrite H in Hvis.
    rewrite iset_tbl in H.
    destruct (iset ks (build_item x) _) as [slot'|] eqn:E; simpl in H; [|discriminate]. injection H as <-.
    assert (Hsl : iwf KEntry slot').
    { apply (Hslot KEntry _ slot' E); [|left; reflexivity|destruct ks; [reflexivity|exact Hs]].
      exact (entry_or_none_slot _ items k Hnn (fun k' i Hin => proj2 (all_P_In _ _ _ Ha Hin))). }
    destruct (slot_store_ok true _ items k slot' (fun F => F) Hk Hsl Hn Ha) as (Hn' & Ha' & _).
    apply (tbl_node_rebuild c items _ d im dt p sp Hw Hn' Ha').
    apply vis_side_Rt; [reflexivity|reflexivity|exact Hvis].
Qed.
