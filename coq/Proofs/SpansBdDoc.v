(* Proofs/SpansBdDoc.v — C14, character boundaries, part 5: for a well-formed UTF-8 source, every span
   endpoint stored anywhere in the parsed document is a character boundary of the source.

   Spans are recorded at cursor positions `at_ s i` (Proofs/SpansBoundary.v), which are character
   boundaries; the tree builders only combine such offsets (Proofs/SpansBd.v). *)
From TV Require Import Base.Prelude Base.Utf8 Base.Winnow Gen.Consts.
From TV Require Import Model.Trivia Model.Tree Model.Parse Model.Document.
From TV Require Import Proofs.NoPanicBase Proofs.NoPanicLex Proofs.NoPanicValue Proofs.NoPanicDoc.
From TV Require Import Proofs.SpansDefs Proofs.SpansBase Proofs.SpansLex Proofs.SpansValue
                       Proofs.SpansUtf8 Proofs.SpansUtf8Lex Proofs.SpansBoundary Proofs.SpansBd.
From TV Require Import Proofs.DocumentOps.
Require Import Lia ZifyBool ZifyN ZifyNat.

Section S.
  Variable s : bytes.
  Definition bd (n : N) : bool := char_boundary_b s n.

  Definition gP {A} (Q : A -> Prop) (p : parser A) : Prop := forall i a i', at_ s i -> p i = Ok a i' -> Q a.

  Lemma bd_at i : at_ s i -> bd (pos i) = true.
  Proof. apply at_boundary. Qed.
  Lemma sp_at i j : at_ s i -> at_ s j -> sp_g bd (pos i, pos j) = true.
  Proof. intros A B. apply sp_g_pair; apply bd_at; assumption. Qed.

  Ltac at_next A E :=
    match type of E with
    | ?p ?i = Ok _ ?j => let H := fresh "A" in assert (H : at_ s j) by (eapply (at_step p); [np|up|exact A|exact E])
    end.

  (* ---- loops ------------------------------------------------------------------------------------------------------ *)
  Lemma gP_separated_loop {A Sp} (Q : A -> Prop) (p : parser A) (sep : parser Sp) :
    mono p -> uP p -> mono sep -> uP sep -> gP Q p ->
    forall fuel acc i l i', at_ s i -> separated_loop fuel p sep acc i = Ok l i' -> Forall Q acc -> Forall Q l.
  Proof.
    intros Mp Up Ms Us Hp. induction fuel as [|f IH]; intros acc i l i' At H Ha; cbn [separated_loop] in H; [discriminate|].
    destruct (sep i) as [x i1|? ?|? ?|?] eqn:E; try discriminate.
    - destruct (Nat.eqb _ _); [discriminate|]. pose proof (at_step sep _ _ _ _ Ms Us At E) as A1.
      destruct (p i1) as [a i2|? ?|? ?|?] eqn:E2; try discriminate.
      + eapply IH; [|exact H|]; [eapply (at_step p); eauto|]. constructor; [eapply Hp; eauto|exact Ha].
      + inversion H; subst. apply Forall_rev, Ha.
    - inversion H; subst. apply Forall_rev, Ha.
  Qed.
  Lemma gP_separated0 {A Sp} (Q : A -> Prop) (p : parser A) (sep : parser Sp) :
    mono p -> uP p -> mono sep -> uP sep -> gP Q p -> gP (Forall Q) (separated0 p sep).
  Proof.
    intros Mp Up Ms Us Hp i l i' At H. unfold separated0 in H. destruct (p i) as [a i1|? ?|? ?|?] eqn:E; try discriminate.
    - eapply gP_separated_loop; [exact Mp|exact Up|exact Ms|exact Us|exact Hp| |exact H|]; [eapply (at_step p); eauto|].
      constructor; [eapply Hp; eauto|constructor].
    - inversion H; subst. constructor.
  Qed.
  Lemma gP_separated1 {A Sp} (Q : A -> Prop) (p : parser A) (sep : parser Sp) :
    mono p -> uP p -> mono sep -> uP sep -> gP Q p -> gP (Forall Q) (separated1 p sep).
  Proof.
    intros Mp Up Ms Us Hp i l i' At H. unfold separated1 in H. destruct (p i) as [a i1|? ?|? ?|?] eqn:E; try discriminate.
    eapply gP_separated_loop; [exact Mp|exact Up|exact Ms|exact Us|exact Hp| |exact H|]; [eapply (at_step p); eauto|].
    constructor; [eapply Hp; eauto|constructor].
  Qed.

  (* ---- keys ---------------------------------------------------------------------------------------------------------- *)
  Lemma key_part_g : gP (fun k => key_g bd k = true) key_part.
  Proof.
    intros i k i' At E. unfold key_part in E. apply bind_inv in E as (pre & j & E0 & E).
    apply bind_inv in E as ([r kk] & j0 & E1 & E). apply bind_inv in E as (suf & j1 & E2 & E). apply ret_inv in E as [-> ->].
    at_next At E0. at_next A E1. at_next A0 E2.
    apply span_inv in E0 as (_ & _ & ->). apply span_inv in E2 as (_ & _ & ->). apply simple_key_exact in E1 as (-> & _ & _).
    unfold key_g; cbn [k_repr k_leaf k_dotted oraw_g]. apply andb3. repeat split.
    - unfold raw_g; cbn [raw_span osp_g]. apply sp_at; assumption.
    - apply decor_g_new; apply raw_with_span_g, sp_at; assumption.
  Qed.
  Lemma key_raw_g : gP (fun l => keys_g bd l = true) key_raw.
  Proof.
    intros i l i' At E. unfold key_raw in E. apply try_map_inv in E as (l0 & E & Gt). destruct (check_depth _); inversion Gt; subst l0.
    apply context_inv in E. apply forallb_Forall.
    eapply (gP_separated1 (fun k => key_g bd k = true) key_part (byte_ DOT_SEP)); [np|up|np|up|apply key_part_g|exact At|exact E].
  Qed.
  Lemma key_g_ : gP (fun l => keys_g bd l = true) key_.
  Proof.
    intros i l i' At E. rewrite key_eq in E. apply bind_inv in E as (path & j & E1 & E).
    destruct (fix_key_path path) as [p|] eqn:F; [|discriminate]. apply ret_inv in E as [-> ->].
    eapply fix_key_path_g; [eapply key_raw_g; eauto|exact F].
  Qed.

  (* ---- values ----------------------------------------------------------------------------------------------------------- *)
  Lemma value_g_apply_raw v sp : value_g bd v = true -> sp_g bd sp = true -> value_g bd (apply_raw v sp) = true.
  Proof.
    intros Hv Hs. unfold apply_raw. apply value_g_decorate; [|reflexivity|reflexivity].
    destruct v as [x r d|vals tr c d sp0|items pre im dt d sp0].
    - rewrite value_g_scalar in *. apply andb_true_iff in Hv as [_ H2]. rewrite H2, andb_true_r. cbn [oraw_g]. apply raw_with_span_g, Hs.
    - rewrite value_g_array in *. apply andb4 in Hv as (H1 & H2 & H3 & _). apply andb4. repeat split; auto.
    - rewrite value_g_inline in *. apply andb4 in Hv as (H1 & H2 & H3 & _). apply andb4. repeat split; auto.
  Qed.

  Lemma span_g {A} (p : parser A) : mono p -> uP p -> gP (fun sp => sp_g bd sp = true) (span_ p).
  Proof. intros Mp Up i sp i' At E. apply span_inv in E as (x & E & ->). apply sp_at; [exact At|eapply (at_step p); eauto]. Qed.
  Lemma line_trailing_g : gP (fun sp => sp_g bd sp = true) line_trailing.
  Proof.
    intros i sp i' At E. unfold line_trailing, terminated in E.
    apply bind_inv in E as (sp0 & j & G0 & E). apply bind_inv in E as (u & j0 & G1 & E). apply ret_inv in E as [-> ->].
    eapply span_g; [| |exact At|exact G0]; [np|up].
  Qed.

  Lemma keyval_of_g (val : parser value) (suf : parser (N * N)) :
    mono val -> uP val -> gP (fun v => value_g bd v = true) val -> gP (fun sp => sp_g bd sp = true) suf ->
    gP (pair_g bd) (keyval_of val suf).
  Proof.
    intros Mv Uv Hv Hs i x i' At E. unfold keyval_of in E. apply bind_inv in E as (kp & j & E0 & E).
    apply bind_inv in E as ([[pre v] suf0] & j' & E1 & E).
    destruct (pop_key kp) as [[path k]|] eqn:P; [|discriminate]. apply ret_inv in E as [-> ->].
    pose proof (key_g_ _ _ _ At E0) as Hk. destruct (pop_key_g _ _ _ _ Hk P) as [Hpath Hkk].
    at_next At E0. apply cut_err_inv in E1.
    apply bind_inv in E1 as (x0 & j0 & F0 & E1). apply bind_inv in E1 as (x1 & j1 & F1 & E1).
    apply bind_inv in E1 as (x2 & j2 & F2 & E1). apply bind_inv in E1 as (x3 & j3 & F3 & E1).
    apply ret_inv in E1 as [X ->]. inversion X; subst x1 x2 x3. clear X.
    at_next A F0. at_next A0 F1. assert (A2 : at_ s j2) by (eapply (at_step val); eauto).
    unfold pair_g; cbn [fst snd]. repeat split; auto.
    rewrite item_g_value. apply value_g_decorate; [exact (Hv _ _ _ A1 F2)| |]; apply raw_with_span_g.
    - eapply span_g; [| |exact A0|exact F1]; [np|up].
    - exact (Hs _ _ _ A2 F3).
  Qed.

  Section Knot.
    Variable value_rec : parser value.
    Hypothesis Hm : mono value_rec.
    Hypothesis Hu : uP value_rec.
    Hypothesis Hg : gP (fun v => value_g bd v = true) value_rec.

    Lemma array_value_g : gP (fun it => item_g bd it = true) (array_value value_rec).
    Proof.
      intros i it i' At E. unfold array_value in E. apply bind_inv in E as (pre & j & E0 & E).
      apply bind_inv in E as (v & j0 & E1 & E). apply bind_inv in E as (suf & j1 & E2 & E). apply ret_inv in E as [-> ->].
      at_next At E0. at_next A E1. at_next A0 E2. apply span_inv in E0 as (_ & _ & ->). apply span_inv in E2 as (_ & _ & ->).
      rewrite item_g_value. apply value_g_decorate; [exact (Hg _ _ _ A E1)| |]; apply raw_with_span_g, sp_at; assumption.
    Qed.
    Lemma array_value_mono' : mono (array_value value_rec). Proof. apply array_value_mono, Hm. Qed.
    Lemma array_value_uP' : uP (array_value value_rec). Proof. apply array_value_uP, Hu. Qed.

    Lemma array_values_g : gP (fun v => value_g bd v = true) (array_values value_rec).
    Proof.
      intros i v i' At E. unfold array_values in E. apply bind_inv in E as (c & j & E0 & E). destruct c as [c|].
      - apply ret_inv in E as [-> ->]. reflexivity.
      - apply peek_inv in E0 as (-> & _). apply bind_inv in E as (vals & j0 & E1 & E). apply bind_inv in E as (comma & j1 & E2 & E).
        apply bind_inv in E as (tr & j2 & E3 & E). apply ret_inv in E as [-> ->].
        assert (A0 : at_ s j0).
        { eapply (at_step (separated0 (array_value value_rec) (byte_ ARRAY_SEP))); [| |exact At|exact E1].
          - pose proof array_value_mono'. np.
          - pose proof array_value_uP'. up. }
        assert (A1 : at_ s j1).
        { destruct vals; [apply ret_inv in E2 as [_ ->]; exact A0|]. at_next A0 E2. assumption. }
        at_next A1 E3. apply span_inv in E3 as (_ & _ & ->).
        rewrite value_g_array. apply andb4. repeat split; auto; [|apply raw_with_span_g, sp_at; assumption].
        apply forallb_Forall.
        eapply (gP_separated0 (fun it => item_g bd it = true) (array_value value_rec) (byte_ ARRAY_SEP));
          [apply array_value_mono'|apply array_value_uP'|np|up|apply array_value_g|exact At|exact E1].
    Qed.
    Lemma array_g : gP (fun v => value_g bd v = true) (array value_rec).
    Proof.
      intros i v i' At E. unfold array in E. apply bind_inv in E as (b & j & E0 & E). apply bind_inv in E as (a & j0 & E1 & E).
      apply bind_inv in E as (b2 & j1 & E2 & E). apply ret_inv in E as [-> ->]. apply cut_err_inv in E1.
      at_next At E0. eapply array_values_g; eauto.
    Qed.

    Lemma inline_keyval_g : gP (pair_g bd) (inline_keyval value_rec).
    Proof. rewrite inline_keyval_of. apply (keyval_of_g value_rec (span_ ws) Hm Hu Hg). apply span_g; [np|up]. Qed.

    Lemma inline_body_g : gP (fun v => value_g bd v = true) (inline_body value_rec).
    Proof.
      intros i v i' At E. unfold inline_body in E. apply try_map_inv in E as ([kv p] & E & Gt).
      unfold inline_kvs in E. apply bind_inv in E as (kv0 & j & E0 & E). apply bind_inv in E as (p0 & j0 & E1 & E).
      apply ret_inv in E as [X ->]. inversion X; subst kv p. clear X.
      assert (A0 : at_ s j).
      { eapply (at_step (separated0 (inline_keyval value_rec) (byte_ INLINE_TABLE_SEP))); [| |exact At|exact E0].
        - pose proof (inline_keyval_mono _ Hm). np.
        - pose proof (inline_keyval_uP _ Hu). up. }
      at_next A0 E1. apply span_inv in E1 as (_ & _ & ->).
      eapply (table_from_pairs_g bd kv0 (raw_with_span (pos j, pos j0)) v); [|apply raw_with_span_g, (sp_at j j0); assumption|exact Gt].
      eapply (gP_separated0 (pair_g bd) (inline_keyval value_rec) (byte_ INLINE_TABLE_SEP));
        [apply inline_keyval_mono, Hm|apply inline_keyval_uP, Hu|np|up|apply inline_keyval_g|exact At|exact E0].
    Qed.
    Lemma inline_table_g : gP (fun v => value_g bd v = true) (inline_table value_rec).
    Proof.
      intros i v i' At E. rewrite inline_table_eq in E. apply bind_inv in E as (b & j & E0 & E). apply bind_inv in E as (a & j0 & E1 & E).
      apply bind_inv in E as (b2 & j1 & E2 & E). apply ret_inv in E as [-> ->]. apply cut_err_inv in E1.
      at_next At E0. eapply inline_body_g; eauto.
    Qed.

    Lemma gP_context {A} (Q : A -> Prop) (p : parser A) : gP Q p -> gP Q (context p).
    Proof. intros H i a i' At E. apply context_inv in E. eapply H; eauto. Qed.
    Lemma gP_peek_bind {A B} (Q : B -> Prop) (p : parser A) (f : A -> parser B) :
      (forall a, gP Q (f a)) -> gP Q (a <- context (peek p) ;; f a).
    Proof.
      intros Hf i b i' At E. apply bind_inv in E as (a & j & E0 & E). apply context_inv, peek_inv in E0 as (-> & _).
      eapply Hf; eauto.
    Qed.
    Lemma gP_alt {A} (Q : A -> Prop) (p q : parser A) : gP Q p -> gP Q q -> gP Q (alt p q).
    Proof.
      intros Hp Hq i a i' At E. unfold alt in E. destruct (p i) eqn:E1; try discriminate.
      - eapply Hp; [exact At|]. rewrite E1. exact E.
      - eapply Hq; eauto.
    Qed.
    Lemma gP_fail {A} (Q : A -> Prop) : gP Q (@fail A). Proof. intros i a i' _ E. discriminate. Qed.
    Lemma gP_scalar {A} (p : parser A) (f : A -> scalar) : gP (fun v => value_g bd v = true) (pmap (fun x => scalar_value (f x)) p).
    Proof. intros i v i' At E. apply pmap_inv in E as (a & _ & ->). reflexivity. Qed.
    Lemma gP_check_recursion {A} (Q : A -> Prop) (p : parser A) : gP Q p -> gP Q (check_recursion p).
    Proof.
      intros H i a i' At E. apply check_recursion_inv in E as (i2 & d & E & D & ->). eapply (H (set_depth (S (depth i)) i)); [|exact E].
      destruct At as (C & L & V). repeat split; assumption.
    Qed.

    Lemma value_body_g : gP (fun v => value_g bd v = true) (value_body value_rec).
    Proof.
      unfold value_body. apply gP_peek_bind. intro b.
      repeat match goal with |- gP _ (if ?c then _ else _) => destruct c end;
        repeat apply gP_context; repeat apply gP_alt; try apply gP_scalar; try apply gP_fail.
      - apply gP_check_recursion, array_g.
      - apply gP_check_recursion, inline_table_g.
    Qed.

    Lemma value_step_g : gP (fun v => value_g bd v = true) (value_step value_rec).
    Proof.
      intros i v i' At E. apply value_step_exact in E as (v0 & E & ->).
      assert (A' : at_ s i').
      { eapply (at_step (value_body value_rec)); [apply value_body_mono, Hm|apply value_body_uP, Hu|exact At|exact E]. }
      apply value_g_apply_raw; [exact (value_body_g i v0 i' At E)|apply sp_at; assumption].
    Qed.
  End Knot.

  Lemma value_f_g n : gP (fun v => value_g bd v = true) (value_f n).
  Proof.
    induction n as [|n IH]; [intros i v i' _ E; discriminate|].
    change (value_f (S n)) with (value_step (value_f n)). apply value_step_g; [apply value_f_all|apply value_f_uP|exact IH].
  Qed.
  Lemma value_g_ : gP (fun v => value_g bd v = true) value_.
  Proof. intros i v i' At E. eapply value_f_g; eauto. Qed.

  (* ---- document lines ---------------------------------------------------------------------------------------------------------- *)
  Lemma parse_keyval_g : gP (pair_g bd) parse_keyval.
  Proof.
    rewrite parse_keyval_of. apply (keyval_of_g value_ (context line_trailing)); [np|up|apply value_g_|].
    intros i sp i' At E. apply context_inv in E. exact (line_trailing_g _ _ _ At E).
  Qed.

  Definition stG (q : pstate -> parser pstate) : Prop :=
    forall st i st' i', at_ s i -> q st i = Ok st' i' -> st_g bd st -> st_g bd st'.

  Lemma keyval_stG : stG keyval.
  Proof.
    intros st i st' i' At E Hst. unfold keyval in E. apply try_map_inv in E as ([path [k v]] & E & Gt).
    apply lift_state_ok in Gt. destruct (parse_keyval_g _ _ _ At E) as (H1 & H2 & H3). cbn [fst snd] in *.
    eapply on_keyval_sp_g; eauto.
  Qed.

  Lemma header_stG ia : stG (header ia).
  Proof.
    intros st i st' i' At E Hst. rewrite header_eq in E. apply try_map_inv in E as ([[h sp] t] & E & Gt).
    apply lift_state_ok in Gt. unfold header_syntax in E. cbv zeta in E. unfold pair_ in E.
    apply bind_inv in E as (a & j & E0 & E). apply bind_inv in E as (a0 & j0 & E1 & E).
    apply ret_inv in E as [X ->]. inversion X; subst a a0. clear X.
    assert (A0 : at_ s j) by (eapply (at_step _ s i _ j); [| |exact At|exact E0]; destruct ia; [np|np|up|up]).
    apply with_span_inv in E0 as (x' & E0 & S). injection S as <- ->.
    unfold delimited in E0. apply bind_inv in E0 as (o & k0 & F0 & E0). apply bind_inv in E0 as (b & k1 & F1 & E0).
    apply bind_inv in E0 as (c & k2 & F2 & E0). apply ret_inv in E0 as [-> ->]. apply cut_err_inv in F1.
    assert (Ak0 : at_ s k0) by (eapply (at_step _ s i _ k0); [| |exact At|exact F0]; destruct ia; [np|np|up|up]).
    pose proof (key_g_ _ _ _ Ak0 F1) as Hh.
    apply context_inv, cut_err_inv in E1.
    eapply on_header_g; [exact Hst|exact Hh| | |exact Gt]; [exact (line_trailing_g _ _ _ A0 E1)|apply sp_at; assumption].
  Qed.

  Lemma on_ws_stG {A} (p : parser A) : mono p -> uP p -> stG (fun st => pmap (on_ws st) (span_ p)).
  Proof.
    intros Mp Up st i st' i' At E Hst. apply pmap_inv in E as (sp & E & ->).
    apply st_g_on_ws; [exact Hst|]. exact (span_g p Mp Up _ _ _ At E).
  Qed.
  Lemma parse_ws_stG : stG parse_ws. Proof. apply (on_ws_stG ws); [np|up]. Qed.
  Lemma parse_newline_stG : stG parse_newline. Proof. apply (on_ws_stG newline); [np|up]. Qed.
  Lemma parse_comment_stG : stG parse_comment. Proof. apply (on_ws_stG (comment ;;; context line_ending)); [np|up]. Qed.

  Lemma lit_bom_uP : uP (lit bom).
  Proof.
    apply uP_checked.
    - intros i b i' E. apply lit_inv in E as (-> & _ & R). exists []. split; [reflexivity|exact R].
    - intros i b i' E. apply lit_inv in E as (-> & _). reflexivity.
  Qed.

  (* a line parser that consumes whole characters leaves the cursor on a character boundary *)
  Lemma at_stI (P : pstate -> Prop) q : (forall st, mono (q st)) -> (forall st, uP (q st)) ->
    (forall st i st' i', at_ s i -> q st i = Ok st' i' -> P st -> P st') -> stI (fun i st => at_ s i /\ P st) q.
  Proof. intros Mq Uq H st i st' i' E [At Hst]. split; [eapply (at_step (q st)); eauto|eapply H; eauto]. Qed.

  Lemma document_g st i' : utf8_valid_b s = true -> document (new_input s) = Ok st i' -> st_g bd st.
  Proof.
    intros V E. pose proof (at_new s V) as A0.
    apply (document_stI (fun i st => at_ s i /\ st_g bd st)) in E; [apply E| | | | | |].
    - apply at_stI; [apply parse_ws_mono|apply parse_ws_uP|apply parse_ws_stG].
    - apply at_stI; [apply parse_newline_mono|apply parse_newline_uP|apply parse_newline_stG].
    - apply at_stI; [apply parse_comment_mono|apply parse_comment_uP|apply parse_comment_stG].
    - apply at_stI; [apply keyval_mono|apply keyval_uP|apply keyval_stG].
    - intro ia. apply at_stI; [intro; apply header_mono|apply header_uP|apply header_stG].
    - intros o j E0. split; [|apply st_g_new, (bd_at _ A0)].
      eapply (at_step (opt (lit bom))); [np|apply uP_opt, lit_bom_uP|exact A0|exact E0].
  Qed.
End S.

Lemma parse_document_g s d :
  utf8_valid_b s = true -> parse_document s = POk d ->
  tbl_g (bd s) (doc_root d) = true /\ raw_g (bd s) (doc_trailing d) = true.
Proof.
  intros V H. apply parse_document_run in H as (fin & i & st' & E & R & F & ->). pose proof (document_g s fin i V E) as Hg.
  destruct (finalize_g _ _ _ Hg F) as (Hr & Htr & _ & _). destruct Hg as (_ & _ & Ht & _).
  cbn [doc_root doc_trailing]. split; [exact Hr|]. rewrite Htr.
  destruct (st_trailing fin) as [sp|]; [apply raw_with_span_g, Ht|reflexivity].
Qed.

(* C14, character boundaries: for a well-formed UTF-8 source, every span endpoint is a character boundary *)
Theorem spans_on_char_boundaries s d :
  utf8_valid_b s = true -> parse_document s = POk d ->
  Forall (fun sp => char_boundary_b s (fst sp) = true /\ char_boundary_b s (snd sp) = true) (all_spans d).
Proof.
  intros V H. destruct (parse_document_g s d V H) as [Hr Ht].
  assert (X : forallb (sp_g (bd s)) (all_spans d) = true).
  { unfold all_spans, raw_spans. rewrite forallb_app, ospan_spans_g. apply andb_true_iff. split; [exact Hr|exact Ht]. }
  apply forallb_Forall in X. eapply Forall_impl; [|exact X]. intros sp Y. apply andb_true_iff in Y. exact Y.
Qed.
