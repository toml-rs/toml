(* Proofs/LexEquivMlLit.v — L1 for ml-literal-string: the quotes helper shared by both multi-line
   kinds, the body recogniser against the ABNF shape, CR LF normalisation, and the token lemma
   in both directions (maximal munch: what follows the token is not an apostrophe). *)
From TV Require Import Base.Prelude Base.Utf8 Base.Winnow Gen.Consts Spec.Abnf Spec.Lex.
From TV Require Import Model.Trivia Model.Strings.
From TV Require Import Proofs.ConstsOk Proofs.LexEquivBase Proofs.LexEquivTrivia
  Proofs.LexEquivStrings.
Require Import Lia ZifyBool ZifyN ZifyNat.

(* ---- mlb_quotes / mll_quotes: two quote characters followed by term, else one ------------------------ *)
Definition q_attempt (l : bytes) (term : parser unit) : parser bytes :=
  unchecked_utf8 3 (terminated (lit l) (peek term)).

Lemma quotes2_unfold q term i :
  quotes2 q term i = match q_attempt [q; q] term i with
                     | Bt _ _ => q_attempt [q] term i
                     | r => r
                     end.
Proof. reflexivity. Qed.

Lemma q_attempt_ok l term i s x j :
  rest i = l ++ s -> term (adv l i) = Ok x j -> utf8_valid_b l = true ->
  q_attempt l term i = Ok l (adv l i).
Proof.
  intros H T V. unfold q_attempt, terminated. apply unchecked_ok; [|exact V].
  rewrite (bind_ok _ _ _ _ _ (lit_ok l i s H)). rewrite (bind_ok _ _ _ _ _ (peek_ok _ _ _ _ T)). reflexivity.
Qed.

Lemma q_attempt_fails_lit l term i : (forall s, rest i <> l ++ s) -> fails (q_attempt l term) i.
Proof. intro H. unfold q_attempt, terminated. apply unchecked_fails, bind_fails, lit_fails. exact H. Qed.

Lemma q_attempt_fails_term l term i s :
  rest i = l ++ s -> fails term (adv l i) -> fails (q_attempt l term) i.
Proof.
  intros H T. unfold q_attempt, terminated. apply unchecked_fails. unfold fails.
  rewrite (bind_ok _ _ _ _ _ (lit_ok l i s H)). apply bind_fails, peek_fails. exact T.
Qed.

Lemma q_attempt_inv l term i r i' : q_attempt l term i = Ok r i' ->
  r = l /\ splits i l i' /\ exists x j, term i' = Ok x j.
Proof.
  unfold q_attempt, terminated. intro H. apply unchecked_inv in H as [H _].
  apply bind_inv in H as (a & i1 & H1 & H). apply lit_inv in H1 as [-> S].
  apply bind_inv in H as (x & i2 & H2 & H). apply peek_inv in H2 as (-> & j & T).
  apply ret_inv in H as [-> ->]. eauto.
Qed.

Lemma quotes2_two q term i s x j :
  rest i = [q; q] ++ s -> term (adv [q; q] i) = Ok x j -> ascii q = true ->
  quotes2 q term i = Ok [q; q] (adv [q; q] i).
Proof.
  intros H T A. rewrite quotes2_unfold. rewrite (q_attempt_ok [q; q] term i s x j H T); [reflexivity|].
  apply utf8_ascii. cbn [forallb]. rewrite A. reflexivity.
Qed.

Lemma quotes2_one q term i s x j :
  rest i = [q] ++ s -> fails (q_attempt [q; q] term) i -> term (adv [q] i) = Ok x j -> ascii q = true ->
  quotes2 q term i = Ok [q] (adv [q] i).
Proof.
  intros H (e & k & F) T A. rewrite quotes2_unfold, F. apply (q_attempt_ok [q] term i s x j H T).
  apply utf8_ascii. cbn [forallb]. rewrite A. reflexivity.
Qed.

Lemma quotes2_fails q term i :
  fails (q_attempt [q; q] term) i -> fails (q_attempt [q] term) i -> fails (quotes2 q term) i.
Proof. intros (e & k & F) F1. unfold fails. rewrite quotes2_unfold, F. exact F1. Qed.

Lemma quotes2_inv q term i r i' : quotes2 q term i = Ok r i' ->
  (r = [q] \/ r = [q; q]) /\ splits i r i' /\ exists x j, term i' = Ok x j.
Proof.
  rewrite quotes2_unfold. destruct (q_attempt [q; q] term i) as [a i1|e j| |] eqn:E; try discriminate.
  - intro H. injection H as -> ->. apply q_attempt_inv in E as (-> & S & T). auto.
  - intro H. apply q_attempt_inv in H as (-> & S & T). auto.
Qed.

(* the two terminators *)
Definition not_q (q : byte) : parser unit := pvoid (none_of (byte_eqb q)).
Definition delim3 (q : byte) : parser unit := pvoid (lit [q; q; q]).

Lemma not_q_ok q i b s : rest i = b :: s -> byte_eqb q b = false -> not_q q i = Ok tt (adv [b] i).
Proof.
  intros H N. unfold not_q, none_of. apply (pvoid_ok _ _ b). apply (one_of_ok _ i b s H). rewrite N. reflexivity.
Qed.
Lemma not_q_fails_q q i s : rest i = q :: s -> fails (not_q q) i.
Proof.
  intro H. unfold not_q, none_of. apply pvoid_fails, one_of_fails. rewrite H. cbn [stops].
  rewrite byte_eqb_refl. reflexivity.
Qed.
Lemma not_q_fails_eof q i : rest i = [] -> fails (not_q q) i.
Proof. intro H. unfold not_q, none_of. apply pvoid_fails, one_of_fails. rewrite H. exact I. Qed.
Lemma not_q_inv q i x j : not_q q i = Ok x j -> exists b s, rest i = b :: s /\ byte_eqb q b = false.
Proof.
  unfold not_q, none_of. intro H. apply pvoid_inv in H as (b & H). apply one_of_inv in H as [N [S _]].
  exists b, (rest j). split; [exact S|]. destruct (byte_eqb q b); [discriminate|reflexivity].
Qed.

Lemma delim3_ok q i s : rest i = [q; q; q] ++ s -> delim3 q i = Ok tt (adv [q; q; q] i).
Proof. intro H. unfold delim3. apply (pvoid_ok _ _ [q; q; q]). apply (lit_ok _ i s H). Qed.
Lemma delim3_fails q i : (forall s, rest i <> [q; q; q] ++ s) -> fails (delim3 q) i.
Proof. intro H. unfold delim3. apply pvoid_fails, lit_fails. exact H. Qed.
Lemma delim3_inv q i x j : delim3 q i = Ok x j -> exists s, rest i = [q; q; q] ++ s.
Proof.
  unfold delim3. intro H. apply pvoid_inv in H as (a & H). apply lit_inv in H as [_ [S _]]. eauto.
Qed.

(* runs of quote characters before the closing delimiter: q^(k+3) followed by something else *)
Lemma quotes2_not_q_fails q i s :
  rest i = q :: q :: q :: s -> fails (quotes2 q (not_q q)) i.
Proof.
  intro H. apply quotes2_fails.
  - apply (q_attempt_fails_term [q; q] _ i (q :: s) H). apply (not_q_fails_q q _ s). apply (rest_adv [q; q] _ i H).
  - apply (q_attempt_fails_term [q] _ i (q :: q :: s) H). apply (not_q_fails_q q _ (q :: s)). apply (rest_adv [q] _ i H).
Qed.

(* one or two quotes before a byte that is not one are no delimiter *)
Lemma delim3_fails_short q i l s : rest i = l ++ s -> l = [q] \/ l = [q; q] -> stops (byte_eqb q) s ->
  fails (delim3 q) i.
Proof.
  intros H Hl Hs. apply delim3_fails. intros s' E. rewrite H in E.
  destruct Hl as [-> | ->]; injection E as E; subst s; cbn [stops] in Hs;
    rewrite byte_eqb_refl in Hs; discriminate.
Qed.

(* the closing delimiter directly: no quotes belong to the body *)
Lemma quotes2_delim_0 q i s : ascii q = true ->
  rest i = q :: q :: q :: s -> stops (byte_eqb q) s -> fails (quotes2 q (delim3 q)) i.
Proof.
  intros A H Hs. apply quotes2_fails.
  - apply (q_attempt_fails_term [q; q] _ i (q :: s) H).
    apply (delim3_fails_short q _ [q] s (rest_adv [q; q] _ i H)); auto.
  - apply (q_attempt_fails_term [q] _ i (q :: q :: s) H).
    apply (delim3_fails_short q _ [q; q] s (rest_adv [q] _ i H)); auto.
Qed.

(* one quote, then the delimiter *)
Lemma quotes2_delim_1 q i s : ascii q = true ->
  rest i = q :: q :: q :: q :: s -> stops (byte_eqb q) s ->
  quotes2 q (delim3 q) i = Ok [q] (adv [q] i).
Proof.
  intros A H Hs. apply (quotes2_one q _ i (q :: q :: q :: s) tt (adv [q; q; q] (adv [q] i)) H); [| |exact A].
  - apply (q_attempt_fails_term [q; q] _ i (q :: q :: s) H).
    apply (delim3_fails_short q _ [q; q] s (rest_adv [q; q] _ i H)); auto.
  - apply (delim3_ok q _ s). apply (rest_adv [q] _ i H).
Qed.

(* two quotes, then the delimiter *)
Lemma quotes2_delim_2 q i s : ascii q = true ->
  rest i = q :: q :: q :: q :: q :: s ->
  quotes2 q (delim3 q) i = Ok [q; q] (adv [q; q] i).
Proof.
  intros A H. apply (quotes2_two q _ i (q :: q :: q :: s) tt (adv [q; q; q] (adv [q; q] i)) H); [|exact A].
  apply (delim3_ok q _ s). apply (rest_adv [q; q] _ i H).
Qed.

(* one or two quotes followed by a byte that is not a quote *)
Lemma quotes2_not_q_ok q i l b s : ascii q = true -> (l = [q] \/ l = [q; q]) ->
  rest i = l ++ b :: s -> byte_eqb q b = false -> quotes2 q (not_q q) i = Ok l (adv l i).
Proof.
  intros A [-> | ->] H N.
  - apply (quotes2_one q _ i (b :: s) tt (adv [b] (adv [q] i)) H); [| |exact A].
    + apply q_attempt_fails_lit. intros s' E. rewrite H in E. injection E as E _. subst b.
      rewrite byte_eqb_refl in N. discriminate.
    + apply (not_q_ok q _ b s); [apply (rest_adv [q] _ i H)|exact N].
  - apply (quotes2_two q _ i (b :: s) tt (adv [b] (adv [q; q] i)) H); [|exact A].
    apply (not_q_ok q _ b s); [apply (rest_adv [q; q] _ i H)|exact N].
Qed.

(* ---- the grammar's quote runs (mll-quotes, mlb-quotes) and the closing quotes of a body -------------------------------- *)
Definition quotes_of (q : byte) : lang := either (keep [q]) (keep [q; q]).

Lemma quotes_of_cases q t v : quotes_of q t v -> (t = [q] \/ t = [q; q]) /\ v = t.
Proof. intros [[-> ->] | [-> ->]]; auto. Qed.

Lemma quotes_of_intro q t : t = [q] \/ t = [q; q] -> quotes_of q t t.
Proof. intros [-> | ->]; [left|right]; split; reflexivity. Qed.

Lemma maybe_quotes_of_cases q t v : maybe (quotes_of q) t v -> (t = [] \/ t = [q] \/ t = [q; q]) /\ v = t.
Proof. intros [[-> ->] | [[-> ->] | [-> ->]]]; auto. Qed.

(* groups that each open with quotes, followed by a quote: the whole starts with a quote *)
Lemma star_quoted_head q (X : lang) t v s : star (cat (quotes_of q) X) t v -> exists s', t ++ q :: s = q :: s'.
Proof.
  intros [|ta va tb vb (tq & vq & c & vc & -> & -> & Hq & _) _]; [cbn [app]; eauto|].
  apply quotes_of_cases in Hq as [[-> | ->] _]; cbn [app]; eauto.
Qed.

Lemma maybe_quoted_head q t v s : maybe (quotes_of q) t v -> exists s', t ++ q :: s = q :: s'.
Proof. intro C. apply maybe_quotes_of_cases in C as [[-> | [-> | ->]] _]; cbn [app]; eauto. Qed.

Lemma closing_quotes_head q t v s : maybe (quotes_of q) t v -> exists s', t ++ [q; q; q] ++ s = q :: q :: q :: s'.
Proof. intro C. apply maybe_quotes_of_cases in C as [[-> | [-> | ->]] _]; cbn [app]; eauto. Qed.

(* the parser on the closing quotes of a body, which the delimiter and something else follow *)
Lemma closing_quotes_ok q i t v s : ascii q = true -> maybe (quotes_of q) t v ->
  rest i = t ++ [q; q; q] ++ s -> stops (byte_eqb q) s ->
  opt (quotes2 q (delim3 q)) i = Ok (match t with [] => None | _ => Some t end) (adv t i).
Proof.
  intros A C H Hs. apply maybe_quotes_of_cases in C as [[-> | [-> | ->]] _]; cbn [app] in H.
  - rewrite adv_nil. apply opt_fails, (quotes2_delim_0 q i s A H Hs).
  - apply opt_ok, (quotes2_delim_1 q i s A H Hs).
  - apply opt_ok, (quotes2_delim_2 q i s A H).
Qed.

Lemma closing_quotes_inv q term i o i' : opt (quotes2 q term) i = Ok o i' ->
  exists t, maybe (quotes_of q) t t /\ t = match o with Some qi => qi | None => [] end /\ splits i t i'.
Proof.
  intro H. apply opt_inv in H as [(t & -> & H) | (-> & -> & _)].
  - apply quotes2_inv in H as (Hq & S & _). exists t. split; [right; apply quotes_of_intro, Hq|auto].
  - exists []. split; [left; auto|]. split; [reflexivity|apply splits_nil].
Qed.

(* ---- the frame of both multi-line kinds: delimiter [ newline ] body delimiter ------------------------------------------ *)
Lemma newline_tok_ascii nl : newline_tok nl -> forallb ascii nl = true.
Proof. intros [-> | ->]; reflexivity. Qed.

Lemma first_newline_ascii nl body : first_newline nl body -> forallb ascii nl = true.
Proof. intros [Hn | [-> _]]; [apply newline_tok_ascii; exact Hn|reflexivity]. Qed.

(* the token is well-formed exactly when its body is *)
Lemma ml_frame_valid q nl body : ascii q = true -> forallb ascii nl = true ->
  utf8_valid_b ([q; q; q] ++ nl ++ body ++ [q; q; q]) = true <-> utf8_valid_b body = true.
Proof.
  intros Aq An. assert (A3 : forallb ascii [q; q; q] = true) by (cbn [forallb]; rewrite Aq; reflexivity).
  rewrite (utf8_app_ascii _ _ A3), (utf8_app_ascii nl _ An). split; intro V.
  - apply (utf8_split body q _ Aq V).
  - apply utf8_join; [exact V|apply utf8_ascii; exact A3].
Qed.

(* s: what follows the optional newline, which starts with the body *)
Lemma opt_newline_complete i nl body s : first_newline nl body ->
  (~ starts_with_newline body -> ~ starts_with_newline s) -> rest i = nl ++ s ->
  opt newline i = Ok (match nl with [] => None | _ => Some tt end) (adv nl i).
Proof.
  intros [Hn | [-> N]] Hs R.
  - rewrite (opt_ok _ _ _ _ (newline_complete _ nl _ R Hn)). destruct Hn as [-> | ->]; reflexivity.
  - rewrite adv_nil. apply opt_fails, newline_fails. rewrite R. apply Hs, N.
Qed.

Lemma opt_newline_sound i o i' body r : opt newline i = Ok o i' -> rest i' = body ++ r ->
  exists nl, first_newline nl body /\ splits i nl i'.
Proof.
  intros H E. apply opt_inv in H as [(u & -> & H) | (-> & -> & F)].
  - apply newline_sound in H as (nl & Hn & S). exists nl. split; [left; exact Hn|exact S].
  - exists []. split; [|apply splits_nil]. right. split; [reflexivity|].
    intros (nl & t' & Hn & Eb). rewrite Eb, <- app_assoc in E.
    destruct F as (e & j & F). rewrite (newline_complete i nl _ E Hn) in F. discriminate.
Qed.

(* ---- CR LF normalisation ------------------------------------------------------------------------------------------ *)
(* reading the text of a language from the left commutes with replace_crlf *)
Definition crlf_ok (L : lang) : Prop := forall t v, L t v -> forall s, replace_crlf (t ++ s) = v ++ replace_crlf s.

Lemma replace_crlf_cons b s : byte_eqb b x0d = false -> replace_crlf (b :: s) = b :: replace_crlf s.
Proof. intro H. destruct s as [|c r]; [reflexivity|]. cbn [replace_crlf]. rewrite H. reflexivity. Qed.

Lemma crlf_ok_one cl : (forall b, cl b = true -> byte_eqb b x0d = false) -> crlf_ok (one cl).
Proof. intros H t v (b & Hb & -> & ->) s. cbn [app]. apply replace_crlf_cons. apply H. exact Hb. Qed.

Lemma crlf_ok_newline : crlf_ok newline_lf.
Proof.
  intros t v [[-> | ->] ->] s; cbn [app].
  - apply replace_crlf_cons. reflexivity.
  - reflexivity.
Qed.

Lemma crlf_ok_keep l : forallb (fun b => negb (byte_eqb b x0d)) l = true -> crlf_ok (keep l).
Proof.
  intros H t v [-> ->] s. induction l as [|b l IH]; [reflexivity|].
  cbn [forallb] in H. apply andb_true_iff in H as [Hb Hl]. cbn [app].
  rewrite replace_crlf_cons by (destruct (byte_eqb b x0d); [discriminate|reflexivity]).
  rewrite IH by exact Hl. reflexivity.
Qed.

Lemma crlf_ok_either L1 L2 : crlf_ok L1 -> crlf_ok L2 -> crlf_ok (either L1 L2).
Proof. intros H1 H2 t v [H | H]; [apply H1|apply H2]; exact H. Qed.

Lemma crlf_ok_cat L1 L2 : crlf_ok L1 -> crlf_ok L2 -> crlf_ok (cat L1 L2).
Proof.
  intros H1 H2 t v (t1 & v1 & t2 & v2 & -> & -> & A & B) s.
  rewrite <- !app_assoc. rewrite (H1 t1 v1 A). rewrite (H2 t2 v2 B). reflexivity.
Qed.

Lemma crlf_ok_star L : crlf_ok L -> crlf_ok (star L).
Proof.
  intros H t v St. induction St as [|t1 v1 t2 v2 A _ IH]; intro s; [reflexivity|].
  rewrite <- !app_assoc. rewrite (H t1 v1 A). rewrite IH. reflexivity.
Qed.

Lemma crlf_ok_maybe L : crlf_ok L -> crlf_ok (maybe L).
Proof. intros H t v [[-> ->] | A] s; [reflexivity|apply H; exact A]. Qed.

Lemma mll_char_not_cr b : mll_char b = true -> byte_eqb b x0d = false.
Proof. cls. lia. Qed.

Lemma crlf_ok_mll_body : crlf_ok ml_literal_body_tok.
Proof.
  assert (C : crlf_ok mll_content_tok) by (apply crlf_ok_either; [apply crlf_ok_one, mll_char_not_cr|apply crlf_ok_newline]).
  assert (Q : crlf_ok mll_quotes) by (apply crlf_ok_either; apply crlf_ok_keep; reflexivity).
  apply crlf_ok_cat; [apply crlf_ok_star, C|]. apply crlf_ok_cat; [|apply crlf_ok_maybe, Q].
  apply crlf_ok_star, crlf_ok_cat; [exact Q|]. apply crlf_ok_cat; [exact C|apply crlf_ok_star, C].
Qed.

(* C02: the decoded value of a body is its text with CR LF replaced by LF *)
Lemma mll_body_value t v : ml_literal_body_tok t v -> v = replace_crlf t.
Proof.
  intro H. pose proof (crlf_ok_mll_body t v H []) as E. rewrite !app_nil_r in E. symmetry. exact E.
Qed.

(* ---- mll-content = mll-char / newline ---------------------------------------------------------------------------------- *)
Lemma mll_char_not_nl b : mll_char b = true ->
  byte_eqb x27 b = false /\ byte_eqb b x0a = false /\ byte_eqb b x0d = false.
Proof. cls. lia. Qed.

Lemma mll_content_head t v : mll_content_tok t v -> exists b t', t = b :: t' /\ byte_eqb x27 b = false.
Proof.
  intros [(b & Hb & -> & ->) | [[-> | ->] _]].
  - exists b, []. split; [reflexivity|apply (mll_char_not_nl b Hb)].
  - exists x0a, []. auto.
  - exists x0d, [x0a]. auto.
Qed.

Lemma mll_content_ok i t v r : mll_content_tok t v -> rest i = t ++ r -> exists b, mll_content i = Ok b (adv t i).
Proof.
  intros [(b & Hb & -> & ->) | [Hn ->]] H; unfold mll_content.
  - exists b. apply alt_ok. apply (one_of_ok _ i b r H). rewrite MLL_CHAR_ok. exact Hb.
  - exists x0a. rewrite alt_fails_l; [apply (pvalue_ok _ _ _ tt), (newline_complete i t r H Hn)|].
    apply one_of_fails. rewrite H. destruct Hn as [-> | ->]; reflexivity.
Qed.

Lemma mll_content_inv i b i' : mll_content i = Ok b i' ->
  exists t v, mll_content_tok t v /\ splits i t i'.
Proof.
  unfold mll_content. intro H. apply alt_inv in H as [H | [_ H]].
  - apply one_of_inv in H as [Hb S]. rewrite MLL_CHAR_ok in Hb. exists [b], [b].
    split; [left; exists b; auto|exact S].
  - apply pvalue_inv in H as (_ & u & H). apply newline_sound in H as (t & Ht & S).
    exists t, [x0a]. split; [right; split; auto|exact S].
Qed.

Lemma mll_content_shrinking : shrinking mll_content.
Proof. apply splits_shrinking. intros i a i' H. apply mll_content_inv in H as (t & _ & _ & S). eauto. Qed.

Lemma mll_content_fails_apos i s : rest i = x27 :: s -> fails mll_content i.
Proof.
  intro H. unfold mll_content. apply alt_fails.
  - apply one_of_fails. rewrite H. reflexivity.
  - apply pvalue_fails, newline_fails. rewrite H. intros (nl & t' & [-> | ->] & E); discriminate.
Qed.

(* a run of a parser that reads items of L reads a sequence of them *)
Lemma runs_star_sound {A} (p : parser A) (L : lang) :
  (forall i a i', p i = Ok a i' -> exists t v, L t v /\ splits i t i') ->
  forall i l i', runs p i l i' -> exists t v, star L t v /\ splits i t i'.
Proof.
  intros Hp. induction 1 as [i F|i a i1 l i2 E _ _ (t2 & v2 & St & S2)].
  - exists [], []. split; [apply star_nil|apply splits_nil].
  - apply Hp in E as (t1 & v1 & C & S1). exists (t1 ++ t2), (v1 ++ v2).
    split; [apply star_cons; assumption|apply (splits_trans _ _ _ _ _ S1 S2)].
Qed.

Lemma runs_mll_sound i l i' : runs mll_content i l i' ->
  exists t v, star mll_content_tok t v /\ splits i t i'.
Proof. apply runs_star_sound. apply mll_content_inv. Qed.

Lemma runs_mll_complete t v : star mll_content_tok t v -> forall i s, rest i = t ++ x27 :: s ->
  exists l, runs mll_content i l (adv t i).
Proof.
  induction 1 as [|t1 v1 t2 v2 C _ IH]; intros i s H.
  - exists []. rewrite adv_nil. apply runs_nil. apply (mll_content_fails_apos i s H).
  - rewrite <- app_assoc in H. destruct (mll_content_ok i t1 v1 _ C H) as (b & E).
    destruct (IH _ s (rest_adv _ _ _ H)) as (l & Rl).
    exists (b :: l). apply (runs_step _ i t1 _ b l t2 H); [|exact E|exact Rl].
    destruct (mll_content_head t1 v1 C) as (c & t' & -> & _). discriminate.
Qed.

(* ---- the body recogniser --------------------------------------------------------------------------------------------------- *)
Definition mll_qel : parser (list byte) :=
  quotes2 x27 (not_q x27) ;;; repeat1 mll_content.
Definition mll_body_rec : parser (option bytes) :=
  repeat0 mll_content ;;; repeat0 mll_qel ;;; opt (quotes2 x27 (delim3 x27)).

Lemma ml_literal_body_unfold i : ml_literal_body i = from_utf8 (taken mll_body_rec) i.
Proof. reflexivity. Qed.

Lemma mll_quotes_cases q v : mll_quotes q v -> (q = [x27] \/ q = [x27; x27]) /\ v = q.
Proof. apply quotes_of_cases. Qed.

Lemma mll_qel_inv i l i' : mll_qel i = Ok l i' ->
  exists t v, cat mll_quotes (star1 mll_content_tok) t v /\ splits i t i'.
Proof.
  unfold mll_qel. intro H. apply bind_inv in H as (q & i1 & H1 & H).
  apply quotes2_inv in H1 as (Hq & S1 & _).
  apply (repeat1_inv _ _ _ _ mll_content_shrinking) in H as (a & i2 & l' & -> & E & R).
  apply mll_content_inv in E as (t1 & v1 & C & S2). apply runs_mll_sound in R as (t2 & v2 & St & S3).
  exists (q ++ t1 ++ t2), (q ++ v1 ++ v2). split.
  - exists q, q, (t1 ++ t2), (v1 ++ v2). repeat split.
    + apply quotes_of_intro, Hq.
    + exists t1, v1, t2, v2. auto.
  - apply (splits_trans _ _ _ _ _ S1 (splits_trans _ _ _ _ _ S2 S3)).
Qed.

Lemma mll_qel_shrinking : shrinking mll_qel.
Proof. apply splits_shrinking. intros i a i' H. apply mll_qel_inv in H as (t & _ & _ & S). eauto. Qed.

Lemma runs_qel_sound i l i' : runs mll_qel i l i' ->
  exists t v, star (cat mll_quotes (star1 mll_content_tok)) t v /\ splits i t i'.
Proof. apply runs_star_sound. apply mll_qel_inv. Qed.

Lemma mll_body_rec_sound i o i' : mll_body_rec i = Ok o i' ->
  exists t v, ml_literal_body_tok t v /\ splits i t i'.
Proof.
  unfold mll_body_rec. intro H. apply bind_inv in H as (l1 & i1 & H1 & H).
  apply (repeat0_inv _ _ _ _ mll_content_shrinking) in H1. apply runs_mll_sound in H1 as (t1 & v1 & A & S1).
  apply bind_inv in H as (l2 & i2 & H2 & H).
  apply (repeat0_inv _ _ _ _ mll_qel_shrinking) in H2. apply runs_qel_sound in H2 as (t2 & v2 & B & S2).
  apply closing_quotes_inv in H as (t3 & C & _ & S3).
  exists (t1 ++ t2 ++ t3), (v1 ++ v2 ++ t3). split.
  - exists t1, v1, (t2 ++ t3), (v2 ++ t3). repeat split; [exact A|]. exists t2, v2, t3, t3. auto.
  - apply (splits_trans _ _ _ _ _ S1 (splits_trans _ _ _ _ _ S2 S3)).
Qed.

(* completeness: the body, then the closing delimiter, then something that is not an apostrophe *)
Lemma star1_head t v : star1 mll_content_tok t v -> exists b t', t = b :: t' /\ byte_eqb x27 b = false.
Proof.
  intros (t1 & v1 & t2 & v2 & -> & _ & C & _). destruct (mll_content_head t1 v1 C) as (b & t' & -> & N).
  exists b, (t' ++ t2). auto.
Qed.

Lemma mll_qel_ok i q vq c vc s :
  mll_quotes q vq -> star1 mll_content_tok c vc -> rest i = (q ++ c) ++ x27 :: s ->
  exists l, mll_qel i = Ok l (adv (q ++ c) i).
Proof.
  intros Hq Hc H. apply mll_quotes_cases in Hq as [Hq _].
  destruct (star1_head c vc Hc) as (b & c' & Ec & N).
  destruct Hc as (t1 & v1 & t2 & v2 & -> & _ & C & St).
  rewrite <- app_assoc in H.
  assert (H' : rest i = q ++ b :: (c' ++ x27 :: s)) by (rewrite H, Ec; reflexivity).
  unfold mll_qel. rewrite (bind_ok _ _ _ _ _ (quotes2_not_q_ok x27 i q b _ eq_refl Hq H' N)).
  pose proof (rest_adv _ _ _ H) as R. rewrite <- app_assoc in R.
  destruct (mll_content_ok _ t1 v1 _ C R) as (a & E). pose proof (rest_adv _ _ _ R) as R2.
  destruct (runs_mll_complete t2 v2 St _ s R2) as (l & Rl).
  exists (a :: l). rewrite (repeat1_runs _ _ _ _ _ _ E Rl). rewrite !adv_adv. reflexivity.
Qed.

Lemma mll_qel_fails_delim i s : rest i = x27 :: x27 :: x27 :: s -> fails mll_qel i.
Proof. intro H. unfold mll_qel. apply bind_fails. apply (quotes2_not_q_fails x27 i s H). Qed.

Lemma maybe_quotes_cases t v : maybe mll_quotes t v -> t = [] \/ t = [x27] \/ t = [x27; x27].
Proof. intro C. apply (maybe_quotes_of_cases x27 t v C). Qed.

Lemma runs_qel_complete t v : star (cat mll_quotes (star1 mll_content_tok)) t v ->
  forall i s, rest i = t ++ x27 :: x27 :: x27 :: s -> exists l, runs mll_qel i l (adv t i).
Proof.
  induction 1 as [|t1 v1 t2 v2 (q & vq & c & vc & -> & -> & Hq & Hc) St IH]; intros i s H.
  - exists []. rewrite adv_nil. apply runs_nil. apply (mll_qel_fails_delim i s H).
  - rewrite <- app_assoc in H.
    destruct (star_quoted_head x27 _ t2 v2 (x27 :: x27 :: s) St) as (s' & Es'). rewrite Es' in H.
    destruct (mll_qel_ok i q vq c vc s' Hq Hc H) as (a & E).
    pose proof (rest_adv _ _ _ H) as R. rewrite <- Es' in R. destruct (IH _ s R) as (l & Rl).
    exists (a :: l). apply (runs_step _ i (q ++ c) _ a l t2 H); [|exact E|exact Rl].
    apply mll_quotes_cases in Hq as [[-> | ->] _]; discriminate.
Qed.

Lemma mll_body_rec_complete i t v s :
  ml_literal_body_tok t v -> rest i = t ++ [x27; x27; x27] ++ s -> stops (byte_eqb x27) s ->
  exists o, mll_body_rec i = Ok o (adv t i).
Proof.
  intros (t1 & v1 & t23 & v23 & -> & -> & A & (t2 & v2 & t3 & v3 & -> & -> & B & C)) H Hs.
  rewrite <- !app_assoc in H.
  (* what follows each part starts with an apostrophe *)
  destruct (closing_quotes_head x27 t3 v3 s C) as (s2 & Es2).
  destruct (star_quoted_head x27 _ t2 v2 (x27 :: x27 :: s2) B) as (s' & Es').
  unfold mll_body_rec.
  assert (H1 : rest i = t1 ++ x27 :: s') by (rewrite H, Es2, Es'; reflexivity).
  destruct (runs_mll_complete t1 v1 A i s' H1) as (l1 & R1).
  rewrite (bind_ok _ _ _ _ _ (repeat0_runs _ _ _ _ R1)).
  pose proof (rest_adv _ _ _ H) as R.
  assert (H2 : rest (adv t1 i) = t2 ++ x27 :: x27 :: x27 :: s2) by (rewrite R, Es2; reflexivity).
  destruct (runs_qel_complete t2 v2 B _ s2 H2) as (l2 & R2).
  rewrite (bind_ok _ _ _ _ _ (repeat0_runs _ _ _ _ R2)).
  rewrite (closing_quotes_ok x27 _ t3 v3 s eq_refl C (rest_adv _ _ _ R) Hs).
  eexists. rewrite !adv_adv. reflexivity.
Qed.

(* ---- ml-literal-string ------------------------------------------------------------------------------------------------------------ *)
Lemma ml_literal_string_unfold i :
  ml_literal_string i =
  ((lit ML_LITERAL_STRING_DELIM ;;; opt newline) ;;;
   c <- context (cut_err (pmap replace_crlf ml_literal_body)) ;;
   context (cut_err (lit ML_LITERAL_STRING_DELIM)) ;;; ret c) i.
Proof. reflexivity. Qed.

Lemma newline_tok_unique a b ra rb : newline_tok a -> newline_tok b -> a ++ ra = b ++ rb -> a = b.
Proof. intros [-> | ->] [-> | ->] E; try reflexivity; discriminate. Qed.

Theorem ml_literal_string_sound i v i' : ml_literal_string i = Ok v i' ->
  exists t, ml_literal_string_tok t v /\ splits i t i'.
Proof.
  rewrite ml_literal_string_unfold. unfold ML_LITERAL_STRING_DELIM. intro H.
  apply bind_inv in H as (o & i2 & H12 & H). apply bind_inv in H12 as (x & i1 & H1 & H2).
  apply lit_inv in H1 as [_ S1].
  apply bind_inv in H as (c & i3 & H3 & H). apply context_inv, cut_err_inv, pmap_inv in H3 as (T & H3 & ->).
  rewrite ml_literal_body_unfold in H3. apply from_utf8_inv in H3 as [H3 V].
  apply taken_inv in H3 as (o3 & H3 & ET). apply mll_body_rec_sound in H3 as (body & w & Hb & S3).
  rewrite (splits_taken _ _ _ S3) in ET. subst T.
  apply bind_inv in H as (y & i4 & H4 & H). apply context_inv, cut_err_inv, lit_inv in H4 as [_ S4].
  apply ret_inv in H as [-> ->].
  destruct (opt_newline_sound _ _ _ body _ H2 (proj1 S3)) as (nl & Hnl & S2).
  exists ([x27; x27; x27] ++ nl ++ body ++ [x27; x27; x27]). split.
  - split.
    + apply ml_frame_valid; [reflexivity|apply (first_newline_ascii nl body Hnl)|exact V].
    + exists nl, body. split; [reflexivity|]. split; [exact Hnl|].
      rewrite <- (mll_body_value body w Hb). exact Hb.
  - apply (splits_trans _ _ _ _ _ S1 (splits_trans _ _ _ _ _ S2 (splits_trans _ _ _ _ _ S3 S4))).
Qed.

(* the first byte of a body is not the start of a newline, unless the body starts with one *)
Lemma mll_body_head body v s : ml_literal_body_tok body v -> ~ starts_with_newline body ->
  ~ starts_with_newline (body ++ x27 :: s).
Proof.
  intros (t1 & v1 & t23 & v23 & -> & -> & A & (t2 & v2 & t3 & v3 & -> & -> & B & C)) N.
  destruct (maybe_quoted_head x27 t3 v3 s C) as (s3 & Es3).
  destruct (star_quoted_head x27 _ t2 v2 s3 B) as (s' & Es').
  rewrite <- !app_assoc, Es3, Es'.
  destruct A as [|ta va tb vb [(b & Hb & -> & ->) | [Hn ->]] _].
  - cbn [app]. intros (nl & t' & [-> | ->] & E); discriminate.
  - destruct (mll_char_not_nl b Hb) as (_ & N1 & N2).
    intros (nl & t' & [-> | ->] & E); injection E as -> _; discriminate.
  - destruct N. exists ta, (tb ++ t2 ++ t3). split; [exact Hn|]. rewrite <- app_assoc. reflexivity.
Qed.

Theorem ml_literal_string_complete i t v r : ml_literal_string_tok t v -> rest i = t ++ r ->
  stops (byte_eqb x27) r -> ml_literal_string i = Ok v (adv t i).
Proof.
  intros (V & nl & body & -> & Hnl & Hb) H Hr. rewrite ml_literal_string_unfold. unfold ML_LITERAL_STRING_DELIM.
  rewrite <- !app_assoc in H.
  rewrite (bind_ok _ _ i (match nl with [] => None | _ => Some tt end) (adv nl (adv [x27; x27; x27] i))).
  2:{ rewrite (bind_ok _ _ _ _ _ (lit_ok _ i _ H)).
      apply (opt_newline_complete _ nl body _ Hnl (mll_body_head body v _ Hb) (rest_adv _ _ _ H)). }
  pose proof (rest_adv _ _ _ (rest_adv _ _ _ H)) as R.
  apply (ml_frame_valid x27 nl body eq_refl (first_newline_ascii nl body Hnl)) in V as Vb.
  destruct (mll_body_rec_complete _ body v r Hb R Hr) as (o & E).
  rewrite (bind_ok _ _ _ v (adv body (adv nl (adv [x27; x27; x27] i)))).
  - pose proof (rest_adv _ _ _ R) as R2.
    rewrite (bind_ok _ _ _ _ _ (context_ok _ _ _ _ (cut_err_ok _ _ _ _ (lit_ok [x27; x27; x27] _ r R2)))).
    unfold ret. rewrite !adv_adv. reflexivity.
  - apply context_ok, cut_err_ok. rewrite (mll_body_value body v Hb). apply pmap_ok.
    rewrite ml_literal_body_unfold. apply from_utf8_ok; [|exact Vb].
    apply (taken_ok _ _ o); [exact E|]. apply (splits_adv _ _ _ R).
Qed.

Lemma ml_literal_string_fails i : (forall s, rest i <> [x27; x27; x27] ++ s) -> fails ml_literal_string i.
Proof.
  intro H. unfold fails. rewrite ml_literal_string_unfold. unfold ML_LITERAL_STRING_DELIM.
  apply bind_fails, bind_fails, lit_fails. exact H.
Qed.

Corollary ml_literal_string_cut_only i e j : ml_literal_string i = Cut e j ->
  forall t v r, rest i = t ++ r -> stops (byte_eqb x27) r -> ~ ml_literal_string_tok t v.
Proof. intros H t v r E Hr Ht. rewrite (ml_literal_string_complete i t v r Ht E Hr) in H. discriminate. Qed.
