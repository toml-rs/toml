(* Proofs/PrintBackDDisplay.v — C03, class (d): Display of a tree whose sections may hold tables made by
   dotted keys: the concatenation of the texts of its visible tables in the order of their positions. *)
From TV Require Import Base.Prelude Gen.Consts.
From TV Require Import Model.Tree Model.Encode.
From TV Require Import Proofs.PrintBackBase Proofs.PrintBackSort Proofs.PrintBackEnts
                       Proofs.PrintBackDisplay Proofs.PrintBackDVals.
Require Import Lia ZifyBool ZifyN ZifyNat Sorting.Sorted Sorting.Permutation.

Definition drvis (e : entry) : bool := match epath e with [] => true | _ => dvis e end.

Lemma assign_filter_d : forall l last, Forall (fun e => dvis e = true -> t_position (etbl e) <> None) l ->
  filter (fun x => dvis (snd x)) (assign_positions last l) = map (fun e => (epos e, e)) (filter dvis l).
Proof.
  induction l as [|[[t p] a] l IH]; intros last H; [reflexivity|]. inversion H as [|? ? He Hl]; subst.
  cbn [assign_positions filter snd]. destruct (dvis (t, p, a)) eqn:V.
  - cbn [map]. rewrite (IH _ Hl). f_equal. specialize (He eq_refl). unfold epos, etbl in *. cbn [fst] in *.
    destruct (t_position t); [reflexivity|congruence].
  - apply IH, Hl.
Qed.

Theorem display_dsections Pv s r tr :
  dsh_tbl Pv r = true -> t_dotted r = false -> t_decor r = decor_default -> t_position r = None ->
  Forall (fun e => dvis e = true -> t_position (etbl e) <> None /\ decor_some (t_decor (etbl e))) (sub_ents (t_items r) []) ->
  display_document (ttbl s r) tr
  = concat (map snd (stable_sort (map (fun e => (epos e, detxt s e)) ((r, [], false) :: filter dvis (sub_ents (t_items r) [])))))
    ++ raw_encode tr [].
Proof.
  intros Hs Hnd Hd Hp Hw. set (rest := sub_ents (t_items r) []) in *. pose proof (sub_ents_dsh Pv r Hs) as Hrest. fold rest in Hrest.
  unfold display_document. rewrite (nested_tables_ents _ _ _ _ (Nat.lt_succ_diag_r _)), ents_ttbl_root, ents_eq, Hnd. fold rest. cbn [app].
  rewrite assign_positions_map. cbn [assign_positions]. rewrite Hp.
  set (root := (r, @nil key, false)). set (L0 := (0%N, root) :: assign_positions 0 rest).
  rewrite <- stable_sort_map.
  assert (Hdec : decor_prefix (t_decor (ttbl s r)) (fst DEFAULT_ROOT_DECOR) = [] /\ decor_suffix (t_decor (ttbl s r)) (snd DEFAULT_ROOT_DECOR) = []).
  { rewrite ttbl_fields. cbn [t_decor]. rewrite Hd. split; reflexivity. }
  destruct Hdec as [-> ->]. cbn [app]. f_equal.
  assert (HL0 : forall q e, In (q, e) (stable_sort L0) -> e = root \/ In e rest).
  { intros q e H. apply (Permutation_in _ (stable_sort_perm L0)) in H. destruct H as [H | H]; [injection H as _ <-; left; reflexivity|].
    right. eapply assign_In, H. }
  rewrite (visit_tables_filter (tent s) (fun x => drvis (snd x))).
  2:{ intros q e b0 Hin Hv. cbn [snd] in Hv. destruct (HL0 q e Hin) as [-> | He]; [discriminate Hv|].
      rewrite Forall_forall in Hrest. destruct (Hrest e He) as [H1 H2]. destruct e as [[t p] a]. unfold edsh, epath in *. cbn [fst snd] in *.
      cbn [tent]. apply (dvisit_invisible Pv); [exact H1|exact H2|]. unfold drvis, epath in Hv. cbn [fst snd] in Hv. destruct p; [congruence|exact Hv]. }
  rewrite stable_sort_filter.
  assert (EL1 : filter (fun x : N * entry => drvis (snd x)) L0 = (0%N, root) :: map (fun e => (epos e, e)) (filter dvis rest)).
  { unfold L0. cbn [filter snd]. change (drvis root) with true. cbv iota. f_equal.
    rewrite <- (assign_filter_d rest 0%N).
    - apply filter_ext_in. intros [q e] Hin. cbn [snd]. apply assign_In in Hin. rewrite Forall_forall in Hrest. destruct (Hrest e Hin) as [_ H2].
      unfold drvis. destruct (epath e); [congruence|reflexivity].
    - eapply Forall_impl; [|exact Hw]. intros e He Hv. apply (He Hv). }
  rewrite EL1. set (L1 := (0%N, root) :: map (fun e => (epos e, e)) (filter dvis rest)).
  assert (HL1 : forall q e, In (q, e) (stable_sort L1) -> e = root \/ (In e rest /\ dvis e = true)).
  { intros q e H. apply (Permutation_in _ (stable_sort_perm L1)) in H. destruct H as [H | H]; [injection H as _ <-; left; reflexivity|].
    right. apply in_map_iff in H as (e0 & E0 & H). injection E0 as _ ->. apply filter_In in H. exact H. }
  rewrite (visit_tables_concat (tent s) (detxt s)).
  2:{ intros q e b0 Hin. destruct (HL1 q e Hin) as [-> | [He Hv]].
      - cbn [root tent]. apply (dvisit_visible Pv s r [] false b0 Hs). left. reflexivity.
      - rewrite Forall_forall in Hrest, Hw. destruct (Hrest e He) as [H1 H2]. destruct (Hw e He Hv) as [_ H4]. destruct e as [[t p] a].
        unfold edsh, epath, etbl in *. cbn [fst snd] in *. cbn [tent]. apply (dvisit_visible Pv); [exact H1|]. right. split; assumption. }
  transitivity (concat (map snd (map (on_snd (detxt s)) (stable_sort L1)))); [rewrite map_map; reflexivity|].
  rewrite stable_sort_map. do 3 f_equal. unfold L1. cbn [map]. f_equal.
  - unfold on_snd, epos, etbl, root. cbn [fst snd]. rewrite Hp. reflexivity.
  - rewrite map_map. reflexivity.
Qed.
