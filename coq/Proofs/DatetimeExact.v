(* Proofs/DatetimeExact.v — both date-time parsers accept EXACTLY the date-time tokens of the specification
   (Spec/Syntax.v date_time_tok: the four TOML shapes with RFC 3339 field ranges), as whole strings. *)
From TV Require Import Base.Prelude Base.Winnow Gen.Consts Model.Datetime Model.DatetimeStd
  Spec.Syntax.
From TV Require Import Proofs.ConstsOk Proofs.LexEquivBase Proofs.LexEquivDatetime Proofs.DatetimeEq.

Theorem doc_datetime_exact s d : doc_datetime s = Some d <-> date_time_tok s d.
Proof.
  split.
  - unfold doc_datetime. destruct s as [|b s']; [discriminate|].
    destruct (in_class VALUE_NUMBER_START b); [|discriminate].
    destruct (date_time (new_input (b :: s'))) as [d' i'| | |] eqn:E; try discriminate.
    destruct (rest i') eqn:R; [|discriminate]. intro H; inversion H; subst d'.
    apply date_time_sound in E as [t [Ht [Hs _]]]. cbn [rest new_input] in Hs. rewrite R, app_nil_r in Hs. rewrite Hs. exact Ht.
  - intro Ht. destruct (date_time_tok_head _ _ Ht) as [b [t' [-> Hb]]].
    unfold doc_datetime. rewrite VALUE_NUMBER_START_ok, Hb, !orb_true_r.
    assert (Hr : rest (new_input (b :: t')) = (b :: t') ++ []) by (cbn [rest new_input]; rewrite app_nil_r; reflexivity).
    rewrite (date_time_complete (new_input (b :: t')) (b :: t') d [] Ht Hr I).
    rewrite (rest_adv _ _ _ Hr). reflexivity.
Qed.

Theorem std_datetime_exact s d : std_from_str s = Some d <-> date_time_tok s d.
Proof. rewrite agree. apply doc_datetime_exact. Qed.

(* nothing else is accepted, and every spelling the specification allows is *)
Corollary std_datetime_rejects s : std_from_str s = None <-> forall d, ~ date_time_tok s d.
Proof.
  split.
  - intros H d Ht. apply std_datetime_exact in Ht. congruence.
  - intro H. destruct (std_from_str s) as [d|] eqn:E; [|reflexivity]. apply std_datetime_exact in E. destruct (H d E).
Qed.
