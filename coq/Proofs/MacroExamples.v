(* Proofs/MacroExamples.v — C19: concrete documents (as abstract statements with their spelling) used by the
   `Example`s of Props/C19.v, and the family of spellings that COMPILES but is outside
   `macro_supported` (integer-like key parts that do not print as themselves), with its refutation
   (replayed on the real macro by lib/props/c19.py, kind "unsupported"; observed on rustc 1.95). *)
From TV Require Import Base.Prelude Model.Macro Spec.MacroSpec.
Require Import String.

Definition bi (s : string) : kseg := KBare [KPIdent (s2b s)].
Definition bn (s : string) : kseg := KBare [KPInt (s2b s)].
Definition qs (s : string) : kseg := KQuoted (s2b s).
Definition int_ (s : string) : aval := AInt SgNone (s2b s).
Definition neg_ (s : string) : aval := AInt SgMinus (s2b s).
Definition dt_ (date : option (string * string * string)) (delim : byte)
               (time : option (string * string * string * option string)) (off : dtoff) : aval :=
  ADt (mkDtsp (match date with Some (y, m, d) => Some (s2b y, s2b m, s2b d) | None => None end) delim
              (match time with
               | Some (h, mi, s, f) => Some (s2b h, s2b mi, s2b s, match f with Some x => Some (s2b x) | None => None end)
               | None => None end) off).

(* [a.b] x = -1  [a] "y"."q k" = 1979-05-27 07:32:00.5-07:00  [[t]] v = [{k.l = +1.5, k.m = true}, [],]
   [[t]] [t.s] w = {}  :  a super-table after its sub-table, a quoted dotted key, a space-delimited
   offset date-time with fraction, an array of tables with a sub-table, nested inline values *)
Definition ex_mixed : list astmt :=
  [ AHeader [bi "a"; bi "b"]; AKeyVal [bi "x"] (neg_ "1");
    AHeader [bi "a"];
    AKeyVal [qs "y"; qs "q k"] (dt_ (Some ("1979", "05", "27")) x20 (Some ("07", "32", "00", Some "5")) (ONum true (s2b "07") (s2b "00")));
    AArrHeader [bi "t"];
    AKeyVal [bi "v"] (AArr [AInl [([bi "k"; bi "l"], AFloat SgPlus (s2b "1.5")); ([bi "k"; bi "m"], ABool true)]; AArr [] false] true);
    AArrHeader [bi "t"]; AHeader [bi "t"; bi "s"]; AKeyVal [bi "w"] (AInl []) ]%string.

(* the four date-time kinds with every delimiter / fraction / offset spelling the macro has a rule for,
   at top level, in an array and in an inline table *)
Definition ex_datetimes : list astmt :=
  [ AKeyVal [bi "odt1"] (dt_ (Some ("1979", "05", "27")) x54 (Some ("07", "32", "00", None)) (OZ x5a));
    AKeyVal [bi "odt2"] (dt_ (Some ("1979", "05", "27")) x20 (Some ("07", "32", "00", None)) (OZ x7a));
    AKeyVal [bi "odt3"] (dt_ (Some ("1979", "05", "27")) x74 (Some ("00", "32", "00", Some "999999")) (ONum true (s2b "07") (s2b "00")));
    AKeyVal [bi "odt4"] (dt_ (Some ("1979", "05", "27")) x54 (Some ("07", "32", "00", Some "123456789123")) (OZ x5a));
    AKeyVal [bi "odt5"] (dt_ (Some ("1979", "05", "27")) x20 (Some ("07", "32", "00", None)) (ONum true (s2b "00") (s2b "00")));
    AKeyVal [bi "ldt1"] (dt_ (Some ("1979", "05", "27")) x54 (Some ("07", "32", "00", None)) ONone);
    AKeyVal [bi "ldt2"] (dt_ (Some ("1979", "05", "27")) x20 (Some ("00", "32", "00", Some "999999")) ONone);
    AKeyVal [bi "ld1"] (dt_ (Some ("1979", "05", "27")) x54 None ONone);
    AKeyVal [bi "lt1"] (dt_ None x54 (Some ("07", "32", "00", None)) ONone);
    AKeyVal [bi "lt2"] (dt_ None x54 (Some ("00", "32", "00", Some "999999")) ONone);
    AKeyVal [bi "arr"] (AArr [ dt_ (Some ("1979", "05", "27")) x54 None ONone;
                               dt_ None x54 (Some ("07", "32", "00", Some "5")) ONone;
                               dt_ (Some ("1979", "05", "27")) x20 (Some ("07", "32", "00", Some "25")) (ONum true (s2b "00") (s2b "00"));
                               dt_ (Some ("1979", "05", "27")) x54 (Some ("07", "32", "00", None)) (OZ x5a) ] true);
    AKeyVal [bi "inl"] (AInl [ ([bi "a"], dt_ (Some ("1979", "05", "27")) x54 None ONone);
                               ([bi "b"; bi "c"], dt_ (Some ("1979", "05", "27")) x20 (Some ("07", "32", "00", None)) (ONum true (s2b "07") (s2b "00")));
                               ([bi "b"; bi "d"], dt_ None x54 (Some ("07", "32", "00", None)) ONone) ]) ]%string.

(* numbers: signs, bases, underscores, the i32 edges, floats, specials; keys made of identifiers,
   integers and dashes; Rust keywords as keys *)
Definition ex_numbers : list astmt :=
  [ AKeyVal [bi "a"] (AInt SgMinus (s2b "2147483648")); AKeyVal [bi "b"] (AInt SgPlus (s2b "2147483647"));
    AKeyVal [bi "c"] (int_ "0x1f"); AKeyVal [bi "d"] (int_ "0o17"); AKeyVal [bi "e"] (int_ "0b101"); AKeyVal [bi "f"] (int_ "1_000");
    AKeyVal [bi "g"] (AFloat SgMinus (s2b "1.5e3")); AKeyVal [bi "h"] (AFloat SgNone (s2b "1_0.0_1")); AKeyVal [bi "i"] (AFloat SgPlus (s2b "1e0_6"));
    AKeyVal [bi "j"] (ASpecial SgMinus true); AKeyVal [bi "k"] (ASpecial SgPlus false); AKeyVal [bi "l"] (ASpecial SgNone true);
    AKeyVal [KBare [KPIdent (s2b "dev"); KPIdent (s2b "dependencies")]; bn "42"; bi "fn"; KBare [KPIdent (s2b "k"); KPInt (s2b "1")]]
            (AArr [neg_ "1"; AInt SgPlus (s2b "1"); AFloat SgMinus (s2b "0.0"); ASpecial SgMinus false; AStr (s2b "s")] false) ]%string.

(* [[a]] x = 1 [[a]] x = 2 [a.b] y = 3 [[a.c]] [[a.c]] z = 1 *)
Definition ex_aot : list astmt :=
  [ AArrHeader [bi "a"]; AKeyVal [bi "x"] (int_ "1"); AArrHeader [bi "a"]; AKeyVal [bi "x"] (int_ "2");
    AHeader [bi "a"; bi "b"]; AKeyVal [bi "y"] (int_ "3");
    AArrHeader [bi "a"; bi "c"]; AArrHeader [bi "a"; bi "c"]; AKeyVal [bi "z"] (int_ "1") ]%string.

(* ---- compile, but name another key / another number (outside macro_supported) ---- *)
(* `05 = 1`: concat! prints an integer literal by VALUE: the macro's key is "5", the parser's "05" *)
Definition bad_int_key : list astmt := [AKeyVal [bn "05"] (int_ "1")]%string.
(* negative integers beyond i32, down to i64::MIN, also inside an array and an inline table: typed i64 by
   `macros::number` (before that repair the negated literal was an i32 and `-2147483649` wrapped to 2147483647) *)
Definition ex_negative : list astmt :=
  [ AKeyVal [bi "a"] (neg_ "2147483649"); AKeyVal [bi "b"] (neg_ "4294967296"); AKeyVal [bi "c"] (neg_ "9223372036854775808");
    AKeyVal [bi "d"] (AArr [neg_ "3000000000"; neg_ "1"; AFloat SgMinus (s2b "1.5"); neg_ "0"] false);
    AKeyVal [bi "e"] (AInl [([bi "x"], neg_ "9223372036854775807"); ([bi "y"], neg_ "2_147_483_649")]) ]%string.

Lemma int_key_refuted :
  exists l t t', forallb (fun s => match s with AKeyVal [KBare [KPInt k]] v => forallb is_digit k && val_ok v | _ => false end) l = true
                 /\ eval l = Some t /\ macro_eval (tokens_of l) = EOk t' /\ t <> t'.
Proof.
  exists bad_int_key. eexists. eexists. split; [reflexivity|].
  split; [vm_compute; reflexivity|]. split; [vm_compute; reflexivity|]. discriminate.
Qed.

