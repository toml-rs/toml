(* Proofs/BuiltRTValue.v — C06: the text of a constructed value (Proofs/BuiltRTEncode.v: txt) is read
   back by the value parser as a value with the same abstract tree, nested to any depth below the
   recursion limit; leaves are abstracted by `leaf_ok` (discharged in Proofs/BuiltRTLeaf.v). *)
From TV Require Import Base.Prelude Base.Utf8 Base.Winnow Gen.Consts.
From TV Require Import Model.Trivia Model.Strings Model.Datetime Model.Numbers Model.Tree Model.Parse Model.Document.
From TV Require Import Model.Write Model.Encode Model.Build.
From TV Require Import Proofs.StringsRTDefs Proofs.StringsRTBase Proofs.StringsRTBasic Proofs.StringsRTTop Proofs.StringsRTDoc.
From TV Require Import Proofs.BuiltRTBase Proofs.BuiltRTEncode Proofs.BuiltRTParse Proofs.BuiltRTKey.
From TV Require Import Proofs.KvFacts Base.ListFacts.
Require Import Lia ZifyBool ZifyN ZifyNat.

(* ---- what may follow a value, what a value starts with ------------------------------------------------ *)
Definition cend (b : byte) : Prop := b = x2c \/ b = x5d \/ b = x7d.       (* , ] } *)
Definition chead (r : bytes) : Prop := exists c r', r = c :: r' /\ cend c.
Definition vterm (r : bytes) : Prop :=
  match r with
  | [] => True
  | b :: r' => cend b \/ b = x0a \/ (b = x20 /\ chead r')
  end.

Definition vstart (b : byte) : Prop :=
  in_class WSCHAR b = false /\ byte_eqb b x23 = false /\ byte_eqb b x0a = false /\ byte_eqb b x0d = false /\
  byte_eqb x5d b = false.
Definition vhead (t : bytes) : Prop := exists b tl, t = b :: tl /\ vstart b.

Lemma vhead_wscn t r : vhead t -> wscn_stop (t ++ r).
Proof. intros (b & tl & -> & H1 & H2 & H3 & H4 & _). cbn [app wscn_stop]. auto. Qed.
Lemma vhead_ws t r : vhead t -> stops (in_class WSCHAR) (t ++ r).
Proof. intro H. apply wscn_stop_ws, vhead_wscn, H. Qed.

Lemma chead_wscn r : chead r -> wscn_stop r.
Proof. intros (c & r' & -> & [-> | [-> | ->]]); cbn; repeat split; reflexivity. Qed.
Lemma chead_ws r : chead r -> stops (in_class WSCHAR) r.
Proof. intro H. apply wscn_stop_ws, chead_wscn, H. Qed.
Lemma chead_vterm b r : sp b -> chead r -> vterm (b ++ r).
Proof.
  intros [-> | ->] H; cbn [app].
  - destruct H as (c & r' & -> & Hc). left. exact Hc.
  - right. right. split; [reflexivity|exact H].
Qed.

(* ---- decor of constructed values: nothing or one space on each side ------------------------------------ *)
Lemma prefix_sp d p0 : prefix_built (d_prefix d) -> sp p0 -> sp (decor_prefix d p0).
Proof.
  unfold decor_prefix. intros [-> | [-> | ->]] H0; [exact H0 | left; reflexivity | right; reflexivity].
Qed.
Lemma suffix_sp d s0 : suffix_built (d_suffix d) -> sp s0 -> sp (decor_suffix d s0).
Proof. unfold decor_suffix. intros [-> | ->] H0; [exact H0 | left; reflexivity]. Qed.

Definition sp2 (dflt : bytes * bytes) : Prop := sp (fst dflt) /\ sp (snd dflt).
Lemma sp2_leading : sp2 DEFAULT_LEADING_VALUE_DECOR. Proof. split; left; reflexivity. Qed.
Lemma sp2_value : sp2 DEFAULT_VALUE_DECOR. Proof. split; [right|left]; reflexivity. Qed.
Lemma sp2_trailing : sp2 DEFAULT_TRAILING_VALUE_DECOR. Proof. split; right; reflexivity. Qed.

Lemma wrap_sp d dflt t : decor_built d -> sp2 dflt ->
  exists a b, wrap d dflt t = a ++ t ++ b /\ sp a /\ sp b.
Proof.
  intros [Hp Hs] [H1 H2]. exists (decor_prefix d (fst dflt)), (decor_suffix d (snd dflt)).
  split; [reflexivity|]. split; [apply prefix_sp | apply suffix_sp]; assumption.
Qed.

Lemma built_decor PS PK v : BuiltValue PS PK v -> decor_built (value_decor v).
Proof. intro H. destruct H; assumption. Qed.

(* in front of an array element there may also be the line break and indentation of the multi-line layout *)
Definition lead (a : bytes) : Prop := sp a \/ a = ML_PREFIX.
Definition ml_decor_ok (dc : decor) : Prop := d_prefix dc = Some (RExplicit ML_PREFIX) /\ suffix_built (d_suffix dc).
Definition elem_decor (dc : decor) : Prop := decor_built dc \/ ml_decor_ok dc.

Lemma wrap_lead dc dflt t : elem_decor dc -> sp2 dflt ->
  exists a b, wrap dc dflt t = a ++ t ++ b /\ lead a /\ sp b.
Proof.
  intros [Hb | [Hp Hs]] Hd.
  - destruct (wrap_sp dc dflt t Hb Hd) as (a & b & E & Ha & Hsb). exists a, b. split; [exact E|]. split; [left; exact Ha|exact Hsb].
  - exists ML_PREFIX, (decor_suffix dc (snd dflt)). split; [|split; [right; reflexivity|apply suffix_sp; [exact Hs|apply Hd]]].
    unfold wrap, decor_prefix. rewrite Hp. reflexivity.
Qed.

Lemma pto_wscn_lead a r d : lead a -> wscn_stop r -> pto ws_comment_newline a r d (fun _ => True).
Proof. intros [Ha | ->] Hr; [apply pto_wscn; assumption|apply (pto_wscn_nl 4), Hr]. Qed.

(* ---- abstract tree of what the parser wraps around a value ----------------------------------------------- *)
Definition item_abs (it : item) : option aval := match it with IValue v => Some (abs_value v) | _ => None end.

Lemma abs_decorate v p s : abs_value (value_decorate v p s) = abs_value v.
Proof. destruct v; reflexivity. Qed.
Lemma abs_apply_raw v sp : abs_value (apply_raw v sp) = abs_value v.
Proof. unfold apply_raw. rewrite abs_decorate. destruct v; reflexivity. Qed.

(* nesting depth is a function of the abstract tree *)
Fixpoint adepth (a : aval) : nat :=
  match a with
  | AScalar _ => 0
  | AArr l => S (fold_right (fun x acc => Nat.max (adepth x) acc) 0 l)
  | AInl l => S (fold_right (fun kv acc => Nat.max (adepth (snd kv)) acc) 0 l)
  end.

(* ---- value.rs: dispatch and apply_raw -------------------------------------------------------------------- *)
Lemma value_body_array vr tl p d :
  value_body vr (mkIn (x5b :: tl) p d) = check_recursion (array vr) (mkIn (x5b :: tl) p d).
Proof. reflexivity. Qed.
Lemma value_body_inline vr tl p d :
  value_body vr (mkIn (x7b :: tl) p d) = check_recursion (inline_table vr) (mkIn (x7b :: tl) p d).
Proof. reflexivity. Qed.

Lemma pto_value_step vr t r d (Q : aval -> Prop) :
  pto (value_body vr) t r d (fun v => Q (abs_value v)) -> pto (value_step vr) t r d (fun v => Q (abs_value v)).
Proof.
  intro H. unfold value_step. apply pto_pmap.
  eapply pto_weaken; [apply (pto_with_span _ _ _ _ _ H)|].
  intros [v sp0] Hv. cbn [fst] in Hv. rewrite abs_apply_raw. exact Hv.
Qed.

(* ---- array.rs ------------------------------------------------------------------------------------------------ *)
Section Arrays.
  Variable vr : parser value.
  Variable d : nat.

  (* one element between its blanks, in front of `,` or `]` *)
  Lemma array_value_pto t (Q : aval -> Prop) a b R :
    lead a -> sp b -> vhead t -> chead R ->
    pto vr t (b ++ R) d (fun v' => Q (abs_value v')) ->
    pto (array_value vr) (a ++ t ++ b) R d (fun it => exists x, item_abs it = Some x /\ Q x).
  Proof.
    intros Ha Hb Hh HR Hv. unfold array_value.
    apply pto_bind with (Q1 := fun _ => True).
    { rewrite <- app_assoc. apply (pto_span _ _ _ _ (fun _ => True)). apply pto_wscn_lead; [exact Ha|apply vhead_wscn, Hh]. }
    intros pre _. apply pto_bind with (Q1 := fun v' => Q (abs_value v')); [exact Hv|].
    intros v' Hv'. apply pto_bind_ret with (Q1 := fun _ => True).
    { apply (pto_span _ _ _ _ (fun _ => True)). apply pto_wscn; [exact Hb|apply chead_wscn, HR]. }
    intros suf _. exists (abs_value v'). cbn [item_abs]. rewrite abs_decorate. auto.
  Qed.

  Definition elem_seg (dflt : bytes * bytes) (x : decor * bytes * (aval -> Prop)) : seg :=
    mkSeg (wrap (fst (fst x)) dflt (snd (fst x))) (fun it => exists y, item_abs it = Some y /\ snd x y).

  (* an element as the proofs see it: decor, text, what is to be read back *)
  Definition elem_rt (x : decor * bytes * (aval -> Prop)) : Prop :=
    elem_decor (fst (fst x)) /\ vhead (snd (fst x)) /\
    forall r, vterm r -> pto vr (snd (fst x)) r d (fun v' => snd x (abs_value v')).

  Lemma elem_seg_parses dflt x : sp2 dflt -> elem_rt x -> seg_parses (array_value vr) d chead (elem_seg dflt x).
  Proof.
    intros Hd (Hb & Hh & Hv) R HR. cbn [elem_seg seg_txt seg_ok].
    destruct (wrap_lead (fst (fst x)) dflt (snd (fst x)) Hb Hd) as (a & b & -> & Ha & Hsb).
    apply array_value_pto; auto. apply Hv. apply chead_vterm; assumption.
  Qed.
  Lemma elem_segs_parse dflt l :
    sp2 dflt -> Forall elem_rt l -> Forall (seg_parses (array_value vr) d chead) (map (elem_seg dflt) l).
  Proof. intros Hd Hl. apply Forall_map. eapply Forall_impl; [|exact Hl]. intros x Hx. apply elem_seg_parses; assumption. Qed.

  (* the text of a first element does not begin with the closing bracket *)
  Lemma elem_not_close dflt x R : sp2 dflt -> elem_rt x -> stops (byte_eqb ARRAY_CLOSE) (seg_txt (elem_seg dflt x) ++ R).
  Proof.
    intros Hd (Hb & Hh & _). cbn [elem_seg seg_txt].
    destruct (wrap_lead (fst (fst x)) dflt (snd (fst x)) Hb Hd) as (a & b & -> & Ha & _).
    destruct Hh as (c & tl & -> & (_ & _ & _ & _ & Hc)).
    destruct Ha as [[-> | ->] | ->]; cbn [app stops]; [exact Hc|reflexivity|reflexivity].
  Qed.

  (* the abstract array of the parsed items *)
  Lemma elems_abs_of dfl0 dfl x0 l a0 res tr c dc sp0 :
    seg_ok (elem_seg dfl0 x0) a0 -> Forall2 (fun s a => seg_ok s a) (map (elem_seg dfl) l) res ->
    exists ys, abs_value (VArray (a0 :: res) tr c dc sp0) = AArr ys /\ Forall2 (fun x y => snd x y) (x0 :: l) ys.
  Proof.
    intros Ha0 Hres.
    assert (G : forall (xs : list (decor * bytes * (aval -> Prop))) its,
                Forall2 (fun x it => exists y, item_abs it = Some y /\ snd x y) xs its ->
                exists ys, flat_map (fun it => match it with IValue e => [abs_value e] | _ => [] end) its = ys
                           /\ Forall2 (fun x y => snd x y) xs ys).
    { induction 1 as [|x it xs its (y & Ey & Hy) _ (ys & Eys & Hys)]; [exists []; split; [reflexivity|constructor]|].
      exists (y :: ys). split; [|constructor; assumption].
      cbn [flat_map]. rewrite Eys. destruct it; try discriminate. cbn [item_abs] in Ey. injection Ey as <-. reflexivity. }
    destruct (G (x0 :: l) (a0 :: res)) as (ys & Eys & Hys); [constructor; [exact Ha0|]|exists ys; cbn [abs_value]; rewrite Eys; auto].
    clear - Hres. revert res Hres. induction l as [|x l IH]; intros res H; inversion H; subst; constructor; [assumption|apply IH; assumption].
  Qed.

  Lemma chead_sep R : chead (x2c :: R).
  Proof. exists x2c, R. split; [reflexivity|left; reflexivity]. Qed.

  Lemma arr_tail_segs (l : list (decor * bytes * (aval -> Prop))) :
    concat (map (fun dt => x2c :: wrap (fst dt) DEFAULT_VALUE_DECOR (snd dt)) (map fst l))
    = segs_txt x2c (map (elem_seg DEFAULT_VALUE_DECOR) l).
  Proof. induction l as [|x l IH]; [reflexivity|]. cbn [map concat segs_txt elem_seg seg_txt app]. rewrite IH. reflexivity. Qed.

  (* the printed elements as segments: the first one carries the leading decor *)
  Lemma arr_txt_segs x0 l :
    arr_txt (map fst (x0 :: l))
    = seg_txt (elem_seg DEFAULT_LEADING_VALUE_DECOR x0) ++ segs_txt x2c (map (elem_seg DEFAULT_VALUE_DECOR) l).
  Proof. destruct x0 as [[d0 t0] Q0]. cbn [map arr_txt fst snd elem_seg seg_txt]. rewrite arr_tail_segs. reflexivity. Qed.

  Lemma peek_not_close TXT p : stops (byte_eqb ARRAY_CLOSE) TXT ->
    peek (opt (byte_ ARRAY_CLOSE)) (mkIn TXT p d) = Ok None (mkIn TXT p d).
  Proof. intro H. eapply peek_ok. eapply opt_bt. apply byte_no. exact H. Qed.

  (* array_values on the printed elements, in front of `]` *)
  Lemma array_values_pto (l : list (decor * bytes * (aval -> Prop))) r :
    Forall elem_rt l ->
    pto (array_values vr) (arr_txt (map fst l)) (x5d :: r) d
        (fun v' => exists ys, abs_value v' = AArr ys /\ Forall2 (fun x y => snd x y) l ys).
  Proof.
    intros Hl p. destruct l as [|x0 l].
    - exists (VArray [] REmpty false decor_default None), p. split; [reflexivity|]. exists []. split; [reflexivity|constructor].
    - inversion Hl as [|? ? Hx0 Hl']; subst.
      assert (HC : chead (x5d :: r)) by (exists x5d, r; split; [reflexivity|right; left; reflexivity]).
      destruct (separated_segs (array_value vr) x2c d chead chead_sep _ _ _ (x5d :: r) (separated0_ok _ _)
                  (elem_seg_parses _ x0 sp2_leading Hx0) (elem_segs_parse _ l sp2_value Hl') HC
                  (loop_ends_stop _ x2c _ (x5d :: r) eq_refl) p) as (res & p1 & E & Hres).
      destruct (pto_wscn [] (x5d :: r) d (or_introl eq_refl) (chead_wscn _ HC) p1) as (u & p2 & Ew & _).
      cbn [app] in Ew.
      rewrite arr_txt_segs, <- app_assoc.
      inversion Hres as [|s0 a0 ? res' Ha0 Hres']; subst.
      exists (VArray (a0 :: res') (raw_with_span (p1, p2)) false decor_default None), p2. split.
      + unfold array_values.
        rewrite (bind_ok _ _ _ _ _ (peek_not_close _ p (elem_not_close _ x0 _ sp2_leading Hx0))).
        cbv beta iota. rewrite (bind_ok _ _ _ _ _ E). cbv beta iota.
        rewrite (bind_ok _ _ _ false (mkIn (x5d :: r) p1 d)).
        2:{ rewrite (pmap_ok _ _ _ None (mkIn (x5d :: r) p1 d)); [reflexivity|]. eapply opt_bt. apply byte_no. reflexivity. }
        rewrite (bind_ok _ _ _ (p1, p2) (mkIn (x5d :: r) p2 d)).
        2:{ unfold span_. rewrite Ew. reflexivity. }
        reflexivity.
      + apply (elems_abs_of DEFAULT_LEADING_VALUE_DECOR DEFAULT_VALUE_DECOR); assumption.
  Qed.

  (* ---- the multi-line layout: "[" ("\n    " element ",")* "\n" "]" ---- *)
  (* the element parser backtracks in front of the closing bracket *)
  Definition vr_bt_close : Prop := forall r' p, exists e i', vr (mkIn (x5d :: r') p d) = Bt e i'.

  Lemma array_value_bt_close r' : vr_bt_close -> bt_after (array_value vr) d (x0a :: x5d :: r').
  Proof.
    intros Hbt p. unfold array_value.
    assert (Hstop : wscn_stop (x5d :: r')) by (cbn; repeat split; reflexivity).
    destruct (pto_span _ _ _ _ (fun _ => True) (pto_wscn_nl 0 (x5d :: r') d Hstop) p) as (sp0 & p1 & E & _).
    cbn [nl_blank repeat app] in E.
    destruct (Hbt r' p1) as (e & i' & Ev).
    exists e, i'. unfold bind at 1. rewrite E. unfold bind at 1. rewrite Ev. reflexivity.
  Qed.

  Lemma array_values_ml_pto (l : list (decor * bytes * (aval -> Prop))) r :
    vr_bt_close -> Forall elem_rt l ->
    pto (array_values vr) (arr_txt (map fst l) ++ (match l with [] => [] | _ => [x2c] end) ++ [x0a]) (x5d :: r) d
        (fun v' => exists ys, abs_value v' = AArr ys /\ Forall2 (fun x y => snd x y) l ys).
  Proof.
    intros Hbt Hl p.
    assert (Hstop : wscn_stop (x5d :: r)) by (cbn; repeat split; reflexivity).
    destruct l as [|x0 l].
    - (* "[" "\n" "]" *)
      cbn [map arr_txt app].
      destruct (array_value_bt_close r Hbt p) as (e & i' & Eb).
      destruct (pto_span _ _ _ _ (fun _ => True) (pto_wscn_nl 0 (x5d :: r) d Hstop) p) as (tr & p2 & Ew & _).
      cbn [nl_blank repeat app] in Ew.
      exists (VArray [] (raw_with_span tr) false decor_default None), p2. split; [|exists []; split; [reflexivity|constructor]].
      unfold array_values.
      rewrite (bind_ok _ _ _ _ _ (peek_not_close (x0a :: x5d :: r) p eq_refl)).
      cbv beta iota.
      rewrite (bind_ok _ _ _ [] (mkIn (x0a :: x5d :: r) p d)) by (unfold separated0; rewrite Eb; reflexivity).
      cbv beta iota. rewrite (bind_ok _ _ _ false (mkIn (x0a :: x5d :: r) p d)) by reflexivity.
      rewrite (bind_ok _ _ _ _ _ Ew). reflexivity.
    - inversion Hl as [|? ? Hx0 Hl']; subst.
      destruct (separated_segs (array_value vr) x2c d chead chead_sep _ _ _ (x2c :: x0a :: x5d :: r) (separated0_ok _ _)
                  (elem_seg_parses _ x0 sp2_leading Hx0) (elem_segs_parse _ l sp2_value Hl') (chead_sep _)
                  (loop_ends_sep _ _ _ _ (array_value_bt_close r Hbt)) p) as (res & p1 & E & Hres).
      destruct (pto_span _ _ _ _ (fun _ => True) (pto_wscn_nl 0 (x5d :: r) d Hstop) (p1 + 1)%N) as (tr & p2 & Ew & _).
      cbn [nl_blank repeat app] in Ew.
      rewrite arr_txt_segs, <- !app_assoc. cbn [app].
      inversion Hres as [|s0 a0 ? res' Ha0 Hres']; subst.
      exists (VArray (a0 :: res') (raw_with_span tr) true decor_default None), p2. split.
      + unfold array_values.
        rewrite (bind_ok _ _ _ _ _ (peek_not_close _ p (elem_not_close _ x0 _ sp2_leading Hx0))).
        cbv beta iota. rewrite (bind_ok _ _ _ _ _ E). cbv beta iota.
        rewrite (bind_ok _ _ _ true (mkIn (x0a :: x5d :: r) (p1 + 1)%N d)).
        2:{ rewrite (pmap_ok _ _ _ (Some x2c) (mkIn (x0a :: x5d :: r) (p1 + 1)%N d)); [reflexivity|].
            apply opt_ok. apply byte_yes. }
        rewrite (bind_ok _ _ _ _ _ Ew). reflexivity.
      + apply (elems_abs_of DEFAULT_LEADING_VALUE_DECOR DEFAULT_VALUE_DECOR); assumption.
  Qed.

  (* array = `[` array_values `]` *)
  Lemma array_of_values t r (Q : value -> Prop) :
    pto (array_values vr) t (x5d :: r) d Q -> pto (array vr) (x5b :: t ++ [x5d]) r d Q.
  Proof.
    intro H. unfold array. change (x5b :: t ++ [x5d]) with ([x5b] ++ t ++ [x5d]).
    apply pto_bind with (Q1 := fun _ => True); [apply pto_byte|]. intros _ _.
    apply pto_bind with (Q1 := Q); [apply pto_cut_err, H|].
    intros v' Hv'.
    change (context (cut_err (byte_ ARRAY_CLOSE));;; ret v') with (bind (context (cut_err (byte_ ARRAY_CLOSE))) (fun _ => ret v')).
    apply pto_bind_ret with (Q1 := fun _ => True); [|intros _ _; exact Hv'].
    apply pto_context, pto_cut_err, pto_byte.
  Qed.
End Arrays.

(* ---- inline_table.rs -------------------------------------------------------------------------------------------- *)
Lemma value_depth_adepth : forall v, value_depth v = adepth (abs_value v).
Proof.
  fix IH 1. intros [s r d|vals tr c d sp0|items pre im dt d sp0]; [reflexivity|..].
  - cbn [value_depth abs_value adepth]. f_equal.
    induction vals as [|it vals IHv]; [reflexivity|]. cbn [fold_right flat_map].
    destruct it as [|e| |]; cbn [app fold_right]; rewrite IHv; [reflexivity| |reflexivity|reflexivity].
    rewrite (IH e). reflexivity.
  - cbn [value_depth abs_value adepth]. f_equal.
    induction items as [|[k it] items IHv]; [reflexivity|]. cbn [fold_right flat_map].
    destruct it as [|e| |]; cbn [app fold_right snd]; rewrite IHv; [reflexivity| |reflexivity|reflexivity].
    rewrite (IH e). reflexivity.
Qed.

(* `key = value`, in an inline table (vp: the value parser one level down, tp: the blanks behind the value) and on a
   line of a document (vp: the value parser, tp: the rest of the line) *)
Definition keyval_of (vp : parser value) (tp : parser (N * N)) : parser (list key * (key * item)) :=
  (kp <- key_ ;;
   '(pre, v, suf) <- cut_err (context (byte_ KEYVAL_SEP) ;;; pre <- span_ ws ;; v <- vp ;; suf <- tp ;; ret (pre, v, suf)) ;;
   match pop_key kp with
   | None => fun _ => Panic P_key_path_empty
   | Some (path, k) => ret (path, (k, IValue (value_decorate v (raw_with_span pre) (raw_with_span suf))))
   end)%parser.

Lemma keyval_of_pto vp tp d k tk ka kb a t s R (A : aval) :
  utf8_valid_b k = true -> write_key KDefault k = Some tk -> sp ka -> sp kb -> sp a -> vhead t ->
  pto vp t (s ++ R) d (fun v' => abs_value v' = A) -> pto tp s R d (fun _ => True) ->
  pto (keyval_of vp tp) ((ka ++ tk ++ kb) ++ x3d :: a ++ t ++ s) R d
      (fun pr => exists kk vv, pr = ([], (kk, IValue vv)) /\ k_key kk = k /\ abs_value vv = A).
Proof.
  intros Hu Hw Hka Hkb Ha Hh Hv Ht. unfold keyval_of.
  apply pto_bind with (Q1 := fun kp => exists kk, kp = [kk] /\ k_key kk = k).
  { change ((x3d :: a ++ t ++ s) ++ R) with (x3d :: (a ++ t ++ s) ++ R). apply key_one_pto; assumption. }
  intros kp (kk & -> & Hkk).
  rewrite <- (app_nil_r (x3d :: a ++ t ++ s)).
  apply pto_bind with (Q1 := fun x3 => abs_value (snd (fst x3)) = A).
  { apply pto_cut_err. change (x3d :: a ++ t ++ s) with ([x3d] ++ a ++ t ++ s).
    apply pto_bind with (Q1 := fun _ => True); [apply pto_context, pto_byte|]. intros _ _.
    apply pto_bind with (Q1 := fun _ => True).
    { rewrite <- app_assoc. apply (pto_span _ _ _ _ (fun _ => True)). apply pto_ws; [exact Ha|]. apply vhead_ws, Hh. }
    intros pre _. apply pto_bind with (Q1 := fun v' => abs_value v' = A); [exact Hv|].
    intros v' Hv'. apply pto_bind_ret with (Q1 := fun _ => True); [exact Ht|].
    intros suf _. exact Hv'. }
  intros [[pre v'] suf] Hv'. cbn [fst snd] in Hv'. cbn [pop_key rev app].
  apply pto_ret. exists kk, (value_decorate v' (raw_with_span pre) (raw_with_span suf)).
  split; [reflexivity|]. split; [exact Hkk|]. rewrite abs_decorate. exact Hv'.
Qed.

(* an element of an inline table as the proofs see it: key text, its token, decor, value text, abstract value *)
Record ielem : Type := mkIE { ie_key : bytes; ie_tok : bytes; ie_decor : decor; ie_txt : bytes; ie_abs : aval }.

Definition pair_ok (x : ielem) (pr : list key * (key * item)) : Prop :=
  exists kk it, pr = ([], (kk, it)) /\ k_key kk = ie_key x /\ item_abs it = Some (ie_abs x).

Lemma table_from_pairs_loop_ok (l : list ielem) : forall pairs m,
  Forall2 pair_ok l pairs ->
  NoDup (map ie_key l) -> (forall x, In x l -> ~ In (ie_key x) (map (fun kv => k_key (fst kv)) m)) ->
  Forall (fun x => S (adepth (ie_abs x)) < LIMIT) l ->
  table_from_pairs_loop_d m pairs = COk (m ++ map snd pairs).
Proof.
  induction l as [|x l IH]; intros pairs m H2 Hnd Hm Hdep; inversion H2 as [|? pr ? pairs' Hpr Hrest]; subst.
  - cbn [table_from_pairs_loop_d map]. rewrite app_nil_r. reflexivity.
  - destruct Hpr as (kk & it & -> & Hk & Hit).
    inversion Hnd as [|? ? Hnotin Hnd']; subst. inversion Hdep as [|? ? Hd0 Hdep']; subst.
    cbn [table_from_pairs_loop_d length Nat.add].
    assert (Hdepth : item_depth it = adepth (ie_abs x)).
    { destruct it as [|e| |]; try discriminate. cbn [item_abs] in Hit. injection Hit as <-. apply value_depth_adepth. }
    unfold check_depth. rewrite Hdepth. cbn [Nat.add].
    destruct (Nat.leb LIMIT (S (adepth (ie_abs x)))) eqn:El; [apply Nat.leb_le in El; lia|].
    cbn [inline_insert Bool.eqb].
    rewrite (proj2 (kv_get_none_iff _ _)) by (rewrite Hk; apply Hm; left; reflexivity).
    unfold kv_push. rewrite (IH pairs' (m ++ [(kk, it)]) Hrest Hnd').
    + cbn [map snd]. rewrite <- app_assoc. reflexivity.
    + intros y Hy. rewrite map_app. cbn [map fst]. intro Hin. apply in_app_or in Hin as [Hin|[Hin|[]]].
      * apply (Hm y (or_intror Hy) Hin).
      * apply Hnotin. rewrite Hk in Hin. rewrite Hin. apply in_map. exact Hy.
    + exact Hdep'.
Qed.

Lemma inline_spans_pass_nil m pairs :
  Forall (fun pr => fst pr = []) pairs -> inline_spans_pass m pairs = m.
Proof.
  unfold inline_spans_pass. revert m. induction pairs as [|[path [k v]] pairs IH]; intros m H; [reflexivity|].
  inversion H as [|? ? Hp Hrest]; subst. cbn [fst] in Hp. subst path. cbn [fold_left inline_set_spans]. apply IH, Hrest.
Qed.

Lemma table_from_pairs_ok (l : list ielem) pairs pre :
  Forall2 pair_ok l pairs -> NoDup (map ie_key l) -> Forall (fun x => S (adepth (ie_abs x)) < LIMIT) l ->
  exists v, table_from_pairs pairs pre = TmOk v /\ abs_value v = AInl (map (fun x => (ie_key x, ie_abs x)) l).
Proof.
  intros H2 Hnd Hdep. unfold table_from_pairs.
  rewrite (table_from_pairs_loop_ok l pairs [] H2 Hnd (fun _ _ Hin => Hin) Hdep). cbn [app].
  eexists. split; [reflexivity|].
  rewrite inline_spans_pass_nil.
  2:{ clear - H2. induction H2 as [|x pr l pairs (kk & it & -> & _) _ IH]; constructor; [reflexivity|exact IH]. }
  cbn [abs_value]. f_equal.
  clear - H2. induction H2 as [|x pr l pairs (kk & it & -> & Hk & Hit) _ IH]; [reflexivity|].
  cbn [map snd flat_map]. rewrite IH. destruct it as [|e| |]; try discriminate.
  cbn [item_abs] in Hit. injection Hit as <-. rewrite Hk. reflexivity.
Qed.

Section Inline.
  Variable vr : parser value.
  Variable d : nat.

  Definition ielem_ok (x : ielem) : Prop :=
    utf8_valid_b (ie_key x) = true /\ write_key KDefault (ie_key x) = Some (ie_tok x) /\
    decor_built (ie_decor x) /\ vhead (ie_txt x) /\
    forall r, vterm r -> pto vr (ie_txt x) r d (fun v' => abs_value v' = ie_abs x).

  Definition entry_txt (dflt : bytes * bytes) (x : ielem) : bytes :=
    key_txt (key_new (ie_key x)) ++ x3d :: wrap (ie_decor x) dflt (ie_txt x).
  Definition entry_seg (dflt : bytes * bytes) (x : ielem) : seg := mkSeg (entry_txt dflt x) (pair_ok x).

  (* inline_table.rs: keyval *)
  Lemma entry_seg_parses dflt x : sp2 dflt -> ielem_ok x -> seg_parses (inline_keyval vr) d chead (entry_seg dflt x).
  Proof.
    intros Hd (Hu & Hw & Hb & Hh & Hv) R HR. cbn [entry_seg seg_txt seg_ok]. unfold entry_txt.
    destruct (wrap_sp (ie_decor x) dflt (ie_txt x) Hb Hd) as (a & b & -> & Ha & Hsb).
    unfold key_txt. rewrite (encode_key_path_one _ _ _ Hw). cbn [fst snd DEFAULT_INLINE_KEY_DECOR].
    eapply pto_weaken.
    - apply (keyval_of_pto vr (span_ ws) d (ie_key x) (ie_tok x) _ _ a (ie_txt x) b R (ie_abs x)); auto; try (right; reflexivity).
      + apply Hv. apply chead_vterm; assumption.
      + apply (pto_span _ _ _ _ (fun _ => True)). apply pto_ws; [exact Hsb|]. apply chead_ws, HR.
    - intros pr (kk & vv & -> & Hkk & Hvv). exists kk, (IValue vv). cbn [item_abs]. rewrite Hvv. auto.
  Qed.

  Definition ie_kdt (x : ielem) : key * (decor * bytes) := (key_new (ie_key x), (ie_decor x, ie_txt x)).

  (* the entries of `{ ... }` as segments: the last one carries the trailing decor *)
  Lemma inl_segs l : l <> [] -> Forall ielem_ok l ->
    exists s0 tl, inl_txt (map ie_kdt l) = seg_txt s0 ++ segs_txt x2c tl /\
                  Forall (seg_parses (inline_keyval vr) d chead) (s0 :: tl) /\
                  forall res, Forall2 (fun s a => seg_ok s a) (s0 :: tl) res -> Forall2 pair_ok l res.
  Proof.
    induction l as [|x0 l IH]; intros Hne H; [contradiction|]. inversion H as [|? ? H0 Hl]; subst.
    destruct l as [|x1 l].
    - exists (entry_seg DEFAULT_TRAILING_VALUE_DECOR x0), []. split; [|split].
      + cbn [map segs_txt]. unfold ie_kdt. rewrite inl_txt_one, app_nil_r. reflexivity.
      + constructor; [|constructor]. apply entry_seg_parses; [apply sp2_trailing|exact H0].
      + intros res Hres. inversion Hres as [|? a ? res' Ha Hr]; subst. inversion Hr; subst. constructor; [exact Ha|constructor].
    - destruct (IH ltac:(discriminate) Hl) as (s1 & tl & Et & Hp & Hok).
      exists (entry_seg DEFAULT_VALUE_DECOR x0), (s1 :: tl). split; [|split].
      + change (map ie_kdt (x0 :: x1 :: l)) with (ie_kdt x0 :: map ie_kdt (x1 :: l)). cbn [map] in Et |- *.
        unfold ie_kdt at 1. rewrite inl_txt_cons. fold (ie_kdt x1). rewrite Et.
        cbn [segs_txt entry_seg seg_txt]. unfold entry_txt. rewrite <- !app_assoc. cbn [app]. rewrite <- ?app_assoc. reflexivity.
      + constructor; [apply entry_seg_parses; [apply sp2_value|exact H0]|exact Hp].
      + intros res Hres. inversion Hres as [|? a ? res' Ha Hr]; subst. constructor; [exact Ha|apply Hok, Hr].
  Qed.

  Lemma key_bt_close r p : exists e i', key_ (mkIn (x7d :: r) p d) = Bt e i'.
  Proof. eexists. eexists. reflexivity. Qed.

  (* inline_table = `{` keyvals `}` *)
  Lemma inline_table_pto (l : list ielem) r :
    Forall ielem_ok l -> NoDup (map ie_key l) -> Forall (fun x => S (adepth (ie_abs x)) < LIMIT) l ->
    pto (inline_table vr) (x7b :: inl_txt (map ie_kdt l) ++ [x7d]) r d
        (fun v' => abs_value v' = AInl (map (fun x => (ie_key x, ie_abs x)) l)).
  Proof.
    intros Hl Hnd Hdep. unfold inline_table.
    change (x7b :: inl_txt (map ie_kdt l) ++ [x7d]) with ([x7b] ++ inl_txt (map ie_kdt l) ++ [x7d]).
    apply pto_bind with (Q1 := fun _ => True); [apply pto_byte|]. intros _ _.
    apply pto_bind with (Q1 := fun v' => abs_value v' = AInl (map (fun x => (ie_key x, ie_abs x)) l)).
    2:{ intros v' Hv'.
        change (context (cut_err (byte_ INLINE_TABLE_CLOSE));;; ret v')
          with (bind (context (cut_err (byte_ INLINE_TABLE_CLOSE))) (fun _ => ret v')).
        apply pto_bind_ret with (Q1 := fun _ => True); [|intros _ _; exact Hv'].
        apply pto_context, pto_cut_err, pto_byte. }
    apply pto_cut_err.
    apply pto_try_map with (Q0 := fun x => Forall2 pair_ok l (fst x)).
    2:{ intros [kv pr] Hkv. cbn [fst] in Hkv. apply (table_from_pairs_ok l kv pr Hkv Hnd Hdep). }
    assert (HC : chead (x7d :: r)) by (exists x7d, r; split; [reflexivity|right; right; reflexivity]).
    intro p.
    assert (Hsep : exists res p1, separated0 (inline_keyval vr) (byte_ INLINE_TABLE_SEP)
                                              (mkIn (inl_txt (map ie_kdt l) ++ x7d :: r) p d)
                                  = Ok res (mkIn (x7d :: r) p1 d) /\ Forall2 pair_ok l res).
    { destruct l as [|x0 l'].
      - exists [], p. split; [|constructor]. cbn [map inl_txt app]. unfold separated0, inline_keyval.
        destruct (key_bt_close r p) as (e & i' & E). rewrite (bind_bt _ _ _ _ _ E). reflexivity.
      - destruct (inl_segs (x0 :: l') ltac:(discriminate) Hl) as (s0 & tl & -> & Hsegs & Hok).
        inversion Hsegs as [|? ? Hs0 Htl]; subst.
        destruct (separated_segs (inline_keyval vr) x2c d chead chead_sep _ s0 tl (x7d :: r) (separated0_ok _ _) Hs0 Htl HC
                                (loop_ends_stop _ x2c _ (x7d :: r) eq_refl) p)
          as (res & p1 & E & Hres).
        exists res, p1. rewrite <- app_assoc. split; [exact E|apply Hok, Hres]. }
    destruct Hsep as (res & p1 & E & Hres).
    destruct (pto_ws [] (x7d :: r) d (or_introl eq_refl) eq_refl p1) as (w & p2 & Ew & _). cbn [app] in Ew.
    exists (res, raw_with_span (p1, p2)), p2. split; [|exact Hres].
    rewrite (bind_ok _ _ _ _ _ E).
    rewrite (bind_ok _ _ _ (p1, p2) (mkIn (x7d :: r) p2 d)); [reflexivity|].
    unfold span_. rewrite Ew. reflexivity.
  Qed.
End Inline.

(* ---- the induction over constructed values -------------------------------------------------------------------- *)
Lemma abs_built_array es tr c d sp0 : abs_value (VArray (map IValue es) tr c d sp0) = AArr (map abs_value es).
Proof. cbn [abs_value]. rewrite (values_of_built _ (fun e => e)). reflexivity. Qed.
Lemma abs_built_inline l pre im dt d sp0 :
  abs_value (VInline (mk_inline_items l) pre im dt d sp0) = AInl (map (fun kv => (fst kv, abs_value (snd kv))) l).
Proof.
  cbn [abs_value]. f_equal. unfold mk_inline_items. induction l as [|[k e] l IH]; [reflexivity|].
  cbn [map flat_map app fst snd]. rewrite IH. reflexivity.
Qed.

Lemma abs_ml_elem e : abs_value (ml_elem e) = abs_value e.
Proof. destruct e; reflexivity. Qed.
Lemma abs_built_array_ml es tr c d sp0 :
  abs_value (VArray (map (fun e => IValue (ml_elem e)) es) tr c d sp0) = AArr (map abs_value es).
Proof. cbn [abs_value]. rewrite (values_of_built _ ml_elem). f_equal. apply map_ext, abs_ml_elem. Qed.

(* the depth of what a value holds, read off its abstract tree *)
Lemma depth_below_array v es : abs_value v = AArr (map abs_value es) -> forall e, In e es -> value_depth e < value_depth v.
Proof.
  intros Ev e H. rewrite !value_depth_adepth, Ev. cbn [adepth].
  apply Nat.lt_succ_r, (fold_max_ge adepth (map abs_value es) (abs_value e)), in_map, H.
Qed.
Lemma depth_below_inline v (l : list (bytes * value)) :
  abs_value v = AInl (map (fun kv => (fst kv, abs_value (snd kv))) l) -> forall kv, In kv l -> value_depth (snd kv) < value_depth v.
Proof.
  intros Ev kv H. rewrite !value_depth_adepth, Ev. cbn [adepth]. apply Nat.lt_succ_r.
  exact (fold_max_ge (fun x => adepth (snd x)) _ _ (in_map (fun kv => (fst kv, abs_value (snd kv))) l kv H)).
Qed.

Lemma depth_array_le v es B :
  abs_value v = AArr (map abs_value es) -> (forall e, In e es -> value_depth e <= B) -> value_depth v <= S B.
Proof.
  intros Ev H. rewrite value_depth_adepth, Ev. cbn [adepth]. apply le_n_S, fold_max_bound.
  intros x Hx. apply in_map_iff in Hx as (e & <- & He). rewrite <- value_depth_adepth. apply H, He.
Qed.
Lemma depth_inline_le v (l : list (bytes * value)) B :
  abs_value v = AInl (map (fun kv => (fst kv, abs_value (snd kv))) l) -> (forall kv, In kv l -> value_depth (snd kv) <= B) ->
  value_depth v <= S B.
Proof.
  intros Ev H. rewrite value_depth_adepth, Ev. cbn [adepth]. apply le_n_S, (fold_max_bound (fun x => adepth (snd x))).
  intros x Hx. apply in_map_iff in Hx as (kv & <- & Hkv). cbn [snd]. rewrite <- value_depth_adepth. apply H, Hkv.
Qed.

(* the value parser backtracks on a closing bracket (dispatch: `_ => fail`) *)
Lemma value_f_bt_close f r p d : exists e i', value_f (S f) (mkIn (x5d :: r) p d) = Bt e i'.
Proof.
  cbn [value_f]. unfold value_step, with_span, pmap, value_body, bind.
  assert (E : context (peek any) (mkIn (x5d :: r) p d) = Ok x5d (mkIn (x5d :: r) p d)) by reflexivity.
  rewrite E. do 2 eexists. reflexivity.
Qed.

Section Main.
  Variable ftext : fval -> bytes.
  Local Notation txt := (txt ftext).

  (* what is asked of a leaf: its text starts like a value and the value parser reads it back, in front
     of anything that can follow a value in printed text *)
  Definition leaf_ok (s : scalar) : Prop :=
    vhead (scalar_txt ftext s) /\
    forall vr r d, vterm r -> pto (value_step vr) (scalar_txt ftext s) r d (fun v => abs_value v = AScalar s).
  Definition key_ok (k : bytes) : Prop := utf8_valid_b k = true.

  Definition value_rt (v : value) : Prop :=
    vhead (txt v) /\
    forall fuel r d, vterm r -> value_depth v < fuel -> d + value_depth v < LIMIT ->
      pto (value_f fuel) (txt v) r d (fun v' => abs_value v' = abs_value v).

  Lemma vstart_open_array : vstart x5b. Proof. repeat split. Qed.
  Lemma vstart_open_inline : vstart x7b. Proof. repeat split. Qed.

  (* the elements of an array: decor, text, what is to be read back *)
  Definition elem_of (dec : value -> decor) (e : value) : decor * bytes * (aval -> Prop) :=
    (dec e, txt e, fun y => y = abs_value e).

  Lemma elems_rt dec es f d n :
    Forall value_rt es -> (forall e, In e es -> elem_decor (dec e)) -> (forall e, In e es -> value_depth e < n) ->
    n <= f -> d + n < LIMIT ->
    Forall (elem_rt (value_f f) (S d)) (map (elem_of dec) es).
  Proof.
    intros IH HD Hlt Hf Hd. apply Forall_forall. intros x Hx. apply in_map_iff in Hx as (e & <- & He). cbn [elem_of fst snd].
    rewrite Forall_forall in IH. destruct (IH e He) as [Hh Hp]. specialize (Hlt e He).
    split; [apply HD, He|]. split; [exact Hh|]. intros r' Hr'. apply Hp; [exact Hr'|lia|lia].
  Qed.

  (* an array, in either layout: the text t between the brackets is read by array_values one level down *)
  Lemma array_rt dec es t f r d :
    S d < LIMIT ->
    pto (array_values (value_f f)) t (x5d :: r) (S d)
        (fun v' => exists ys, abs_value v' = AArr ys /\ Forall2 (fun x y => snd x y) (map (elem_of dec) es) ys) ->
    pto (value_f (S f)) (x5b :: t ++ [x5d]) r d (fun v' => abs_value v' = AArr (map abs_value es)).
  Proof.
    intros Hrec Hvals.
    apply (pto_value_step (value_f f) _ r d (fun a => a = AArr (map abs_value es))).
    apply pto_eq with (q' := check_recursion (array (value_f f))); [intro p0; apply value_body_array|].
    apply pto_check_recursion; [exact Hrec|].
    eapply pto_weaken; [apply array_of_values, Hvals|]. intros v' (ys & -> & Hys). f_equal.
    clear - Hys. revert ys Hys. induction es as [|e es IHes]; intros ys H; inversion H; subst; [reflexivity|].
    cbn [map elem_of snd] in *. f_equal; [assumption|apply IHes; assumption].
  Qed.

  Theorem value_txt_rt : forall v, BuiltValue leaf_ok key_ok v -> value_rt v.
  Proof.
    apply BuiltValue_sind.
    - (* scalars *)
      intros s dcr [Hh Hp] _. split; [exact Hh|].
      intros fuel r d Hr Hf _. destruct fuel as [|f]; [cbn in Hf; lia|].
      intro p. exact (Hp (value_f f) r d Hr p).
    - (* arrays *)
      intros es dcr _ Hes IH. split.
      { rewrite txt_array. exists x5b. eexists. split; [reflexivity|apply vstart_open_array]. }
      intros fuel r d Hr Hf Hd. destruct fuel as [|f]; [lia|].
      rewrite abs_built_array, txt_array.
      set (v := VArray (map IValue es) REmpty false dcr None) in *.
      assert (Hrec : S d < LIMIT) by (unfold v in Hd; cbn [value_depth] in Hd; lia).
      assert (Hl := elems_rt value_decor es f d (value_depth v) IH
                      (fun e He => or_introl (built_decor _ _ _ (proj1 (Forall_forall _ _) Hes e He)))
                      (depth_below_array v es (abs_built_array _ _ _ _ _)) (proj1 (Nat.lt_succ_r _ _) Hf) Hd).
      apply (array_rt value_decor); [exact Hrec|].
      replace (map (fun e => (value_decor e, txt e)) es) with (map fst (map (elem_of value_decor) es)) by (rewrite map_map; reflexivity).
      apply array_values_pto, Hl.
    - (* arrays in the multi-line layout *)
      intros es dcr _ Hes IH. split.
      { rewrite txt_array_ml. exists x5b. eexists. split; [reflexivity|apply vstart_open_array]. }
      intros fuel r d Hr Hf Hd. destruct fuel as [|f]; [lia|].
      rewrite abs_built_array_ml, txt_array_ml.
      set (v := VArray (map (fun e => IValue (ml_elem e)) es) (RExplicit [x0a]) true dcr None) in *.
      assert (Hrec : S d < LIMIT) by (unfold v in Hd; cbn [value_depth] in Hd; lia).
      assert (Hl := elems_rt ml_decor es f d (value_depth v) IH
                      (fun e He => or_intror (conj eq_refl (proj2 (built_decor _ _ _ (proj1 (Forall_forall _ _) Hes e He)))))
                      (depth_below_array v es (abs_built_array_ml _ _ _ _ _)) (proj1 (Nat.lt_succ_r _ _) Hf) Hd).
      assert (Hbt : vr_bt_close (value_f f) (S d)).
      { intros r' p0. destruct f as [|f']; [unfold v in Hf; cbn [value_depth] in Hf; lia|]. apply value_f_bt_close. }
      set (l := map (elem_of ml_decor) es) in *.
      replace (arr_txt (map (fun e => (ml_decor e, txt e)) es) ++ (match es with [] => [] | _ => [x2c] end) ++ [x0a; x5d])
        with ((arr_txt (map fst l) ++ (match l with [] => [] | _ => [x2c] end) ++ [x0a]) ++ [x5d])
        by (unfold l; rewrite map_map, <- !app_assoc; destruct es; reflexivity).
      apply (array_rt ml_decor); [exact Hrec|]. apply array_values_ml_pto; [exact Hbt|exact Hl].
    - (* inline tables *)
      intros l0 dcr _ Hnd Hk Hes IH. split.
      { rewrite txt_inline. exists x7b. eexists. split; [reflexivity|apply vstart_open_inline]. }
      intros fuel r d Hr Hf Hd. destruct fuel as [|f]; [lia|].
      set (v := VInline (mk_inline_items l0) REmpty false false dcr None) in *.
      set (l := map (fun kv => mkIE (fst kv) (key_display_repr (key_new (fst kv))) (value_decor (snd kv))
                                   (txt (snd kv)) (abs_value (snd kv))) l0).
      assert (Etxt : txt v = x7b :: inl_txt (map ie_kdt l) ++ [x7d]).
      { unfold v, l. rewrite txt_inline, map_map. reflexivity. }
      rewrite Etxt.
      assert (Hkeys : map ie_key l = map fst l0) by (unfold l; rewrite map_map; reflexivity).
      assert (Hl : Forall (ielem_ok (value_f f) (S d)) l).
      { unfold l. apply Forall_forall. intros x Hx. apply in_map_iff in Hx as (kv & <- & Hkv).
        rewrite Forall_forall in IH, Hes, Hk.
        assert (Hin : In (snd kv) (map snd l0)) by (apply in_map; exact Hkv).
        destruct (IH _ Hin) as [Hh Hp].
        destruct (key_display_new (fst kv)) as (tk & Hw & Etk).
        unfold ielem_ok. cbn [ie_key ie_tok ie_decor ie_txt ie_abs].
        split; [apply Hk, in_map, Hkv|]. split; [rewrite Etk; exact Hw|].
        split; [apply (built_decor _ _ _ (Hes _ Hin))|]. split; [exact Hh|].
        intros r' Hr'. pose proof (depth_below_inline v l0 (abs_built_inline _ _ _ _ _ _) kv Hkv) as Hlt.
        apply Hp; [exact Hr'|lia|lia]. }
      assert (Hdep : Forall (fun x => S (adepth (ie_abs x)) < LIMIT) l).
      { unfold l. apply Forall_forall. intros x Hx. apply in_map_iff in Hx as (kv & <- & Hkv). cbn [ie_abs].
        rewrite <- value_depth_adepth.
        pose proof (depth_below_inline v l0 (abs_built_inline _ _ _ _ _ _) kv Hkv) as Hlt. lia. }
      assert (Hrec : S d < LIMIT) by (unfold v in Hd; cbn [value_depth] in Hd; lia).
      intro p.
      destruct (pto_value_step (value_f f) (x7b :: inl_txt (map ie_kdt l) ++ [x7d]) r d
                  (fun a => a = AInl (map (fun x => (ie_key x, ie_abs x)) l))) with (p := p)
        as (v' & p' & E & Ea).
      { apply pto_eq with (q' := check_recursion (inline_table (value_f f))); [intro p0; apply value_body_inline|].
        apply pto_check_recursion; [exact Hrec|]. apply inline_table_pto; [exact Hl| |exact Hdep].
        rewrite Hkeys. exact Hnd. }
      exists v', p'. split; [exact E|]. rewrite Ea. unfold v. rewrite abs_built_inline. f_equal.
      unfold l. rewrite map_map. reflexivity.
  Qed.
End Main.
