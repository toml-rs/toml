(* Proofs/SpansDespan.v — C14: after `despan` (ImDocument::into_mut, Model/Encode.v) no spanned raw
   string and no value / table / array-of-tables span remains anywhere in the tree. *)
From TV Require Import Base.Prelude.
From TV Require Import Model.Tree Model.Document Model.Encode.
From TV Require Import Proofs.SpansDefs Proofs.SpansBase.

Section Despan.
  Variable src : bytes.

  Lemma raw_despan_nospan r r' : raw_despan src r = Some r' -> raw_nospan r' = true.
  Proof.
    destruct r as [|t|a b]; cbn [raw_despan]; intro H.
    - inversion H; reflexivity.
    - inversion H; reflexivity.
    - destruct (str_get src a b) as [t|]; [|discriminate]. inversion H. unfold raw_of_bytes. destruct t; reflexivity.
  Qed.
  Lemma oraw_despan_nospan o o' : oraw_despan src o = Some o' -> oraw_nospan o' = true.
  Proof.
    destruct o as [r|]; cbn [oraw_despan]; intro H; [|inversion H; reflexivity].
    destruct (raw_despan src r) as [r'|] eqn:R; [|discriminate]. inversion H; subst. cbn [oraw_nospan].
    eapply raw_despan_nospan, R.
  Qed.
  Lemma decor_despan_nospan d d' : decor_despan src d = Some d' -> decor_nospan d' = true.
  Proof.
    unfold decor_despan. destruct (oraw_despan src (d_prefix d)) as [p|] eqn:P; [|discriminate].
    destruct (oraw_despan src (d_suffix d)) as [s|] eqn:S; [|discriminate]. intro H; inversion H; subst.
    unfold decor_nospan; cbn [d_prefix d_suffix]. rewrite (oraw_despan_nospan _ _ P), (oraw_despan_nospan _ _ S). reflexivity.
  Qed.
  Lemma key_despan_nospan k k' : key_despan src k = Some k' -> key_nospan k' = true.
  Proof.
    unfold key_despan. destruct (decor_despan src (k_leaf k)) as [l|] eqn:L; [|discriminate].
    destruct (decor_despan src (k_dotted k)) as [d|] eqn:D; [|discriminate].
    destruct (oraw_despan src (k_repr k)) as [r|] eqn:R; [|discriminate]. intro H; inversion H; subst.
    unfold key_nospan; cbn [k_repr k_leaf k_dotted].
    rewrite (oraw_despan_nospan _ _ R), (decor_despan_nospan _ _ L), (decor_despan_nospan _ _ D). reflexivity.
  Qed.

  Lemma omap_list_forallb {A B} (f : A -> option B) (g : B -> bool) : forall l l',
    Forall (fun a => forall b, f a = Some b -> g b = true) l ->
    omap_list f l = Some l' -> forallb g l' = true.
  Proof.
    induction l as [|a l IH]; intros l' Hf H; cbn [omap_list] in H.
    - inversion H; reflexivity.
    - inversion Hf as [|? ? Ha Hl]; subst. destruct (f a) as [b|] eqn:Fa; [|discriminate].
      change ((fix go (l : list A) : option (list B) :=
                 match l with [] => Some [] | a :: tl => match f a, go tl with Some b, Some r => Some (b :: r) | _, _ => None end end) l)
        with (omap_list f l) in H.
      destruct (omap_list f l) as [r|] eqn:R; [|discriminate]. inversion H; subst. cbn [forallb].
      rewrite (Ha _ eq_refl), (IH _ Hl eq_refl). reflexivity.
  Qed.

  Definition kv_despan (kv : key * item) : option (key * item) :=
    match kv with (k0, i0) =>
      match key_despan src k0, item_despan src i0 with Some k, Some i => Some (k, i) | _, _ => None end end.

  Lemma kvs_despan_nospan (items : list (key * item)) items' :
    Forall (fun kv => forall i', item_despan src (snd kv) = Some i' -> item_nospan i' = true) items ->
    omap_list kv_despan items = Some items' ->
    forallb (fun kv => key_nospan (fst kv) && item_nospan (snd kv)) items' = true.
  Proof.
    intros IH H. eapply omap_list_forallb; [|exact H]. eapply Forall_impl; [|exact IH].
    intros [k0 i0] Hi [k i] E. cbn [kv_despan snd] in *.
    destruct (key_despan src k0) as [k1|] eqn:K; [|discriminate]. destruct (item_despan src i0) as [i1|] eqn:I0; [|discriminate].
    inversion E; subst. cbn [fst snd]. rewrite (key_despan_nospan _ _ K), (Hi _ eq_refl). reflexivity.
  Qed.

  Lemma value_despan_array vals tr c d sp :
    value_despan src (VArray vals tr c d sp) =
    match omap_list (item_despan src) vals, raw_despan src tr, decor_despan src d with
    | Some vals', Some tr', Some d' => Some (VArray vals' tr' c d' None) | _, _, _ => None end.
  Proof. reflexivity. Qed.
  Lemma value_despan_inline items pre im dt d sp :
    value_despan src (VInline items pre im dt d sp) =
    match omap_list kv_despan items, raw_despan src pre, decor_despan src d with
    | Some items', Some pre', Some d' => Some (VInline items' pre' im dt d' None) | _, _, _ => None end.
  Proof. reflexivity. Qed.
  Lemma item_despan_aot ts sp :
    item_despan src (IAot ts sp) = optmap (fun ts' => IAot ts' None) (omap_list (tbl_despan src) ts).
  Proof. reflexivity. Qed.
  Lemma tbl_despan_eq items d im dt p sp :
    tbl_despan src (Tbl items d im dt p sp) =
    match omap_list kv_despan items, decor_despan src d with
    | Some items', Some d' => Some (Tbl items' d' im dt p None) | _, _ => None end.
  Proof. reflexivity. Qed.

  Lemma tree_despan_nospan :
    (forall v v', value_despan src v = Some v' -> value_nospan v' = true)
    /\ (forall it it', item_despan src it = Some it' -> item_nospan it' = true)
    /\ (forall t t', tbl_despan src t = Some t' -> tbl_nospan t' = true).
  Proof.
    apply tree_ind3.
    - intros s r d v' H. cbn [value_despan] in H. destruct (oraw_despan src r) as [r'|] eqn:R; [|discriminate].
      destruct (decor_despan src d) as [d'|] eqn:D; [|discriminate]. inversion H; subst. cbn [value_nospan].
      rewrite (oraw_despan_nospan _ _ R), (decor_despan_nospan _ _ D). reflexivity.
    - intros vals tr c d sp IH v' H. rewrite value_despan_array in H.
      destruct (omap_list (item_despan src) vals) as [vals'|] eqn:V; [|discriminate].
      destruct (raw_despan src tr) as [tr'|] eqn:T; [|discriminate].
      destruct (decor_despan src d) as [d'|] eqn:D; [|discriminate]. inversion H; subst. cbn [value_nospan].
      rewrite (omap_list_forallb _ _ _ _ IH V), (raw_despan_nospan _ _ T), (decor_despan_nospan _ _ D). reflexivity.
    - intros items pre im dt d sp IH v' H. rewrite value_despan_inline in H.
      destruct (omap_list kv_despan items) as [items'|] eqn:V; [|discriminate].
      destruct (raw_despan src pre) as [pre'|] eqn:T; [|discriminate].
      destruct (decor_despan src d) as [d'|] eqn:D; [|discriminate]. inversion H; subst. cbn [value_nospan].
      rewrite (kvs_despan_nospan _ _ IH V), (raw_despan_nospan _ _ T), (decor_despan_nospan _ _ D). reflexivity.
    - intros it' H. inversion H; reflexivity.
    - intros v IH it' H. change (optmap IValue (value_despan src v) = Some it') in H.
      destruct (value_despan src v) as [v'|] eqn:V; [|discriminate].
      inversion H; subst. change (value_nospan v' = true). apply IH. reflexivity.
    - intros t IH it' H. change (optmap ITable (tbl_despan src t) = Some it') in H.
      destruct (tbl_despan src t) as [t'|] eqn:V; [|discriminate].
      inversion H; subst. change (tbl_nospan t' = true). apply IH. reflexivity.
    - intros ts sp IH it' H. rewrite item_despan_aot in H. destruct (omap_list (tbl_despan src) ts) as [ts'|] eqn:V; [|discriminate].
      inversion H; subst. cbn [item_nospan]. rewrite (omap_list_forallb _ _ _ _ IH V). reflexivity.
    - intros items d im dt p sp IH t' H. rewrite tbl_despan_eq in H.
      destruct (omap_list kv_despan items) as [items'|] eqn:V; [|discriminate].
      destruct (decor_despan src d) as [d'|] eqn:D; [|discriminate]. inversion H; subst. cbn [tbl_nospan].
      rewrite (kvs_despan_nospan _ _ IH V), (decor_despan_nospan _ _ D). reflexivity.
  Qed.
End Despan.

(* ---- a tree without spans has an empty span list ---------------------------------------------------------- *)
(* `*_nospan x`: every span collected from x satisfies `fun _ => false`, i.e. there is none *)
Lemma no_spans (l : list (N * N)) : forallb (fun _ => false) l = true -> l = [].
Proof. destruct l; [reflexivity|discriminate]. Qed.
Lemma raw_nospan_spans r : raw_nospan r = true -> raw_spans r = [].
Proof. destruct r; [reflexivity|reflexivity|discriminate]. Qed.
Lemma tree_nospan_spans :
  (forall v, value_nospan v = true -> value_spans v = [])
  /\ (forall it, item_nospan it = true -> item_spans it = [])
  /\ (forall t, tbl_nospan t = true -> tbl_spans t = []).
Proof.
  destruct (tree_all_spans (fun _ => false) ospan_none raw_nospan oraw_nospan decor_nospan key_nospan
                           value_nospan item_nospan tbl_nospan) as (Hv & Hi & Ht);
    try (intros; reflexivity).
  - intros []; reflexivity.
  - intros []; reflexivity.
  - repeat split; intros x H; apply no_spans; [rewrite <- Hv|rewrite <- Hi|rewrite <- Ht]; exact H.
Qed.

(* C14, despan: ImDocument::into_mut = despan of the root table and of the trailing text *)
Theorem despan_all s d r t :
  tbl_despan s (doc_root d) = Some r -> raw_despan s (doc_trailing d) = Some t ->
  tbl_nospan r = true /\ raw_nospan t = true /\ all_spans (mkDoc r t) = [].
Proof.
  intros Hr Ht. pose proof (proj2 (proj2 (tree_despan_nospan s)) _ _ Hr) as N1.
  pose proof (raw_despan_nospan s _ _ Ht) as N2. repeat split; auto.
  unfold all_spans; cbn [doc_root doc_trailing]. rewrite (proj2 (proj2 tree_nospan_spans) _ N1), (raw_nospan_spans _ N2). reflexivity.
Qed.
(* the same for a single value (Value::from_str despans the value it returns) *)
Theorem despan_value s v v' : value_despan s v = Some v' -> value_nospan v' = true /\ value_spans v' = [].
Proof.
  intro H. pose proof (proj1 (tree_despan_nospan s) _ _ H) as N. split; [exact N|]. apply (proj1 tree_nospan_spans), N.
Qed.
