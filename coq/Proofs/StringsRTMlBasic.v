(* Proofs/StringsRTMlBasic.v — multi-line basic strings are read back exactly: the writer lets
   at most two consecutive quotation marks through and escapes the third (restarting its count);
   the parser takes quote runs of one or two with `mlb_quotes`, up to two more in front of the
   closing delimiter. *)
From TV Require Import Base.Prelude Base.Utf8 Base.Winnow Gen.Consts.
From TV Require Import Model.Trivia Model.Strings Model.Write.
From TV Require Import Proofs.StringsRTDefs Proofs.StringsRTBase Proofs.StringsRTWrite Proofs.StringsRTEsc.
From TV Require Import Proofs.StringsRTQuotes Proofs.StringsRTMlLit.
Require Import Lia ZifyBool ZifyN ZifyNat.

Lemma quote_ascii : (b2n x22 <= 127)%N.
Proof. vm_compute. discriminate. Qed.

(* ---- mlb_content is a content parser ------------------------------------------------------------ *)
Lemma mlb_content_plain c X p d : c <> [] -> forallb plain c = true -> utf8_valid_b c = true -> hstop X ->
  mlb_content (mkIn (c ++ X) p d) = Ok c (after c X p d).
Proof.
  intros Hne Hc Hu HX. unfold mlb_content. apply alt_ok. unfold from_utf8, try_map, take_while1.
  rewrite take_while_yes.
  - rewrite Hu. reflexivity.
  - apply (forallb_impl plain); [apply plain_mlb|exact Hc].
  - apply hstop_mlb. exact HX.
  - destruct c; [congruence|cbn; lia].
Qed.

Lemma newline_bt c X p d : byte_eqb c x0a = false -> byte_eqb c x0d = false ->
  newline (mkIn (c :: X) p d) = Bt err0 (mkIn X (p + 1)%N d).
Proof.
  intros H1 H2. unfold newline. rewrite (bind_ok _ _ _ _ _ (any_cons c X p d)). rewrite H1, H2. reflexivity.
Qed.

(* after a backslash followed by an escape letter, the line-continuation alternative backtracks *)
Lemma mlb_escaped_nl_bt c X p d : esc_letter c ->
  exists e i', mlb_escaped_nl (mkIn (x5c :: c :: X) p d) = Bt e i'.
Proof.
  intros [H1 [H2 H3]]. unfold mlb_escaped_nl, pvoid, pmap, repeat1, ESCAPE.
  rewrite (bind_ok _ _ _ _ _ (byte_yes x5c (c :: X) p d)).
  rewrite (bind_ok _ _ _ _ _ (ws_none (c :: X) (p + 1) d H1)).
  unfold ws_newlines.
  rewrite (bind_bt _ _ _ _ _ (newline_bt c X (p + 1) d H2 H3)). eauto.
Qed.

Lemma mlb_content_backslash c X p d a i' : esc_letter c ->
  escaped (mkIn (x5c :: c :: X) p d) = Ok a i' ->
  mlb_content (mkIn (x5c :: c :: X) p d) = Ok a i'.
Proof.
  intros Hc He. unfold mlb_content.
  rewrite (alt_bt _ _ _ err0 (mkIn (x5c :: c :: X) p d)).
  2:{ unfold from_utf8, try_map. rewrite take_while1_no; [reflexivity|]. reflexivity. }
  destruct (mlb_escaped_nl_bt c X p d Hc) as [e [i1 H1]].
  rewrite (alt_bt _ _ _ e i1).
  2:{ unfold pvalue. apply pmap_bt. exact H1. }
  apply alt_ok. exact He.
Qed.

Lemma mlb_content_simple c v X p d : assoc_byte ESCAPE_SIMPLE c = Some v -> esc_letter c ->
  mlb_content (mkIn (x5c :: c :: X) p d) = Ok (utf8_encode v) (after [x5c; c] X p d).
Proof. intros H Hc. apply mlb_content_backslash; [exact Hc|]. apply escaped_simple. exact H. Qed.

Lemma mlb_content_hex b X p d : is_ctrl b = true ->
  mlb_content (mkIn (u_escape b ++ X) p d) = Ok [b] (after (u_escape b) X p d).
Proof.
  intro H. pose proof (escaped_hex b X p d H) as He. unfold u_escape in *. cbn [app] in *.
  apply mlb_content_backslash; [|exact He]. vm_compute. auto.
Qed.

Lemma mlb_content_lf X p d : mlb_content (mkIn (x0a :: X) p d) = Ok [x0a] (after [x0a] X p d).
Proof. reflexivity. Qed.

Lemma mlb_content_quote X p d : exists e i', mlb_content (mkIn (x22 :: X) p d) = Bt e i'.
Proof. do 2 eexists. reflexivity. Qed.

Definition mlb_step := content_step true mlb_content mlb_content_plain mlb_content_simple mlb_content_hex
                         (fun _ => mlb_content_lf).
Definition mlb_run := content_run true mlb_content mlb_content_plain mlb_content_simple mlb_content_hex
                        (fun _ => mlb_content_lf).

(* ---- shape of the multi-line encoding ------------------------------------------------------------ *)
Definition notq (b : byte) : bool := negb (byte_eqb b x22).
Definition DQ (r : bytes) : bytes := x22 :: x22 :: x22 :: r.

(* a byte other than the quotation mark is written the same way whatever precedes it, and what
   is written does not start with a quotation mark *)
Lemma enc_cons_other is_ml b : byte_eqb b x22 = false ->
  exists h pre, byte_eqb x22 h = false /\
    forall seq r, enc is_ml seq (b :: r) = (h :: pre) ++ enc is_ml 0 r.
Proof.
  intro H.
  destruct (short_escape is_ml b) as [c|] eqn:Es.
  { exists x5c, [c]. split; [reflexivity|]. intros. cbn [enc]. rewrite H, Es. reflexivity. }
  destruct (byte_eqb b x0a) eqn:E0a.
  { exists x0a, []. split; [reflexivity|]. intros. cbn [enc]. rewrite H, Es, E0a. reflexivity. }
  destruct (is_ctrl b) eqn:Ec.
  { destruct (u_escape_shape b) as [h1 [h2 Hu]].
    exists x5c, [x75; x30; x30; h1; h2]. split; [reflexivity|]. intros. cbn [enc]. rewrite H, Es, E0a, Ec, Hu. reflexivity. }
  exists b, []. split; [rewrite byte_eqb_sym; exact H|]. intros. cbn [enc]. rewrite H, Es, E0a, Ec. reflexivity.
Qed.

Lemma enc_app_notq is_ml : forall c seq s, forallb notq c = true -> c <> [] ->
  enc is_ml seq (c ++ s) = enc is_ml seq c ++ enc is_ml 0 s.
Proof.
  induction c as [|b c IH]; intros seq s Hc Hne; [congruence|].
  cbn [forallb] in Hc. apply andb_true_iff in Hc as [Hb Hc].
  assert (E : byte_eqb b x22 = false) by (unfold notq in Hb; destruct (byte_eqb b x22); [discriminate|reflexivity]).
  destruct (enc_cons_other is_ml b E) as [h [pre [_ He]]].
  cbn [app]. rewrite !He. rewrite <- app_assoc. f_equal.
  destruct c as [|b' c']; [reflexivity|]. apply IH; [exact Hc|discriminate].
Qed.

Lemma enc_app_notq0 is_ml c s : forallb notq c = true ->
  enc is_ml 0 (c ++ s) = enc is_ml 0 c ++ enc is_ml 0 s.
Proof. intro H. destruct c as [|b c]; [reflexivity|]. apply enc_app_notq; [exact H|discriminate]. Qed.

(* what follows a content run: a quotation mark of the string (written unescaped) or the delimiter *)
Lemma enc_quote_head s r : starts_q x22 s -> exists Z, enc true 0 s ++ DQ r = x22 :: Z.
Proof.
  intro H. destruct s as [|b s]; [unfold DQ; cbn; eauto|].
  cbn in H. apply byte_eqb_eq in H. subst b. cbn [enc]. beq_compute. change ((2 <? 0 + 1)%N) with false.
  cbv iota. cbn [app]. eauto.
Qed.

(* a run of content up to the next quotation mark of the string or the closing delimiter *)
Lemma mlb_chunks s r acc p d fuel : utf8_valid_b s = true ->
  length (enc true 0 s ++ DQ r) < fuel ->
  exists c s', s = c ++ s' /\ starts_q x22 s' /\ utf8_valid_b s' = true /\
    enc true 0 s = enc true 0 c ++ enc true 0 s' /\
    chunks_f fuel mlb_content acc (mkIn (enc true 0 s ++ DQ r) p d)
    = Ok (acc ++ c) (after (enc true 0 c) (enc true 0 s' ++ DQ r) p d).
Proof.
  intros Hu Hf. destruct (split_at_q x22 s) as [c [s' [Hs [Hc Hs']]]].
  assert (Hcut : utf8_valid_b c = true /\ utf8_valid_b s' = true).
  { apply utf8_cut_plain; [|rewrite <- Hs; exact Hu]. destruct s' as [|x s']; [exact I|].
    cbn in Hs'. apply byte_eqb_eq in Hs'. subst x. reflexivity. }
  assert (Henc : enc true 0 s = enc true 0 c ++ enc true 0 s').
  { rewrite Hs. apply enc_app_notq0. exact Hc. }
  exists c, s'. repeat split; try tauto.
  destruct (enc_quote_head s' r Hs') as [Z HZ].
  rewrite Henc, <- app_assoc. rewrite HZ.
  apply mlb_run; auto.
  - tauto.
  - cbn. auto.
  - intros. apply mlb_content_quote.
  - rewrite <- HZ. rewrite Henc, <- app_assoc in Hf. exact Hf.
Qed.

(* ---- the quote loop and the closing quotes -------------------------------------------------------- *)
Definition Btail (fuel : nat) (acc : bytes) : parser bytes :=
  c2 <- mlb_quote_loop fuel acc ;;
  q <- opt (quotes2 x22 (t_delim x22)) ;;
  ret (c2 ++ match q with Some qi => qi | None => [] end).

Lemma mlb_loop_unfold f acc i :
  mlb_quote_loop (S f) acc i =
  match opt (quotes2 x22 (t_other x22)) i with
  | Ok (Some qi) i1 =>
    match opt mlb_content i1 with
    | Ok (Some ci) i2 =>
      match chunks mlb_content i2 with
      | Ok more i3 => mlb_quote_loop f (acc ++ qi ++ ci ++ more) i3
      | Bt e i' => Bt e i'
      | Cut e i' => Cut e i'
      | Panic s => Panic s
      end
    | Ok None i2 => Ok acc i2
    | Bt e i' => Bt e i'
    | Cut e i' => Cut e i'
    | Panic s => Panic s
    end
  | Ok None i1 => Ok acc i1
  | Bt e i' => Bt e i'
  | Cut e i' => Cut e i'
  | Panic s => Panic s
  end.
Proof. reflexivity. Qed.

Lemma mlb_end s acc fuel r p d : s = [] \/ s = [x22] \/ s = [x22; x22] -> not_head x22 r -> 0 < fuel ->
  Btail fuel acc (mkIn (s ++ DQ r) p d) = Ok (acc ++ s) (after s (DQ r) p d).
Proof.
  intros Hs Hr Hf. destruct fuel as [|f]; [lia|]. unfold Btail.
  assert (HQ : exists e i', quotes2 x22 (t_other x22) (mkIn (s ++ DQ r) p d) = Bt e i').
  { destruct Hs as [-> | [-> | ->]]; apply quotes2_other_qqq. }
  destruct HQ as [e [i' HQ]].
  assert (HL : mlb_quote_loop (S f) acc (mkIn (s ++ DQ r) p d) = Ok acc (mkIn (s ++ DQ r) p d)).
  { rewrite mlb_loop_unfold. rewrite (opt_bt _ _ _ _ HQ). reflexivity. }
  rewrite (bind_ok _ _ _ _ _ HL).
  destruct Hs as [-> | [-> | ->]]; cbn [app]; unfold DQ.
  - destruct (quotes2_delim_0 x22 r p d Hr) as [e1 [i1 H1]].
    rewrite (bind_ok _ _ _ _ _ (opt_bt _ _ _ _ H1)). unfold ret. rewrite after_nil. reflexivity.
  - rewrite (bind_ok _ _ _ _ _ (opt_ok _ _ _ _ (quotes2_delim_1 x22 quote_ascii r p d Hr))). reflexivity.
  - rewrite (bind_ok _ _ _ _ _ (opt_ok _ _ _ _ (quotes2_delim_2 x22 quote_ascii r p d))). reflexivity.
Qed.

Lemma hstop_DQ r : hstop (DQ r).
Proof. cbn. auto. Qed.

(* one turn of the quote loop: one or two quotation marks, a first piece of content, then the rest
   of the content run *)
Lemma mlb_iter f acc qs h e1' c1 s1 r p d :
  qs = [x22] \/ qs = [x22; x22] -> byte_eqb x22 h = false ->
  (forall T p' d', hstop T ->
     mlb_content (mkIn ((h :: e1') ++ enc true 0 s1 ++ T) p' d')
     = Ok c1 (after (h :: e1') (enc true 0 s1 ++ T) p' d')) ->
  utf8_valid_b s1 = true ->
  exists c' s3, s1 = c' ++ s3 /\ starts_q x22 s3 /\ utf8_valid_b s3 = true /\
    enc true 0 s1 = enc true 0 c' ++ enc true 0 s3 /\
    mlb_quote_loop (S f) acc (mkIn (qs ++ (h :: e1') ++ enc true 0 s1 ++ DQ r) p d)
    = mlb_quote_loop f (acc ++ qs ++ c1 ++ c')
        (mkIn (enc true 0 s3 ++ DQ r) (p + N.of_nat (length (qs ++ (h :: e1') ++ enc true 0 c')))%N d).
Proof.
  intros Hqs Hh HP Hu.
  set (p1 := (p + N.of_nat (length qs))%N).
  set (p2 := (p1 + N.of_nat (length (h :: e1')))%N).
  destruct (mlb_chunks s1 r [] p2 d (S (length (enc true 0 s1 ++ DQ r))) Hu) as [c' [s3 [Hs1 [Hq3 [Hu3 [Henc Hch]]]]]]; [lia|].
  exists c', s3. repeat split; auto.
  rewrite mlb_loop_unfold.
  assert (Hq : quotes2 x22 (t_other x22) (mkIn (qs ++ (h :: e1') ++ enc true 0 s1 ++ DQ r) p d)
               = Ok qs (mkIn ((h :: e1') ++ enc true 0 s1 ++ DQ r) p1 d)).
  { destruct Hqs as [-> | ->]; cbn [app].
    - apply (quotes2_other_1 x22 quote_ascii h _ p d Hh).
    - apply (quotes2_other_2 x22 quote_ascii h _ p d Hh). }
  rewrite (opt_ok _ _ _ _ Hq).
  rewrite (opt_ok _ _ _ _ (HP (DQ r) p1 d (hstop_DQ r))).
  unfold chunks, after. cbn [rest]. fold p2. rewrite Hch. cbn [app].
  f_equal. unfold after. apply mkIn_eq; [reflexivity|]. unfold p2, p1.
  clear. repeat (rewrite ?app_length; cbn [length]). lia.
Qed.

Lemma enc_q0 s : enc true 0 (x22 :: s) = x22 :: enc true 1 s.
Proof. reflexivity. Qed.
Lemma enc_q1 s : enc true 1 (x22 :: s) = x22 :: enc true 2 s.
Proof. reflexivity. Qed.
Lemma enc_q2 s : enc true 2 (x22 :: s) = x5c :: x22 :: enc true 0 s.
Proof. reflexivity. Qed.
Lemma enc_seq_other k b s : byte_eqb b x22 = false -> enc true k (b :: s) = enc true 0 (b :: s).
Proof. intro H. destruct (enc_cons_other true b H) as [h [pre [_ He]]]. rewrite !He. reflexivity. Qed.

(* the situation after one or two unescaped quotation marks of the string *)
Lemma mlb_after_quotes k s1 : (k = 1 \/ k = 2)%N -> s1 <> [] -> utf8_valid_b s1 = true ->
  (k = 1%N -> match s1 with b :: _ => byte_eqb b x22 = false | [] => True end) ->
  exists h e1' c1 s2,
    byte_eqb x22 h = false /\ s1 = c1 ++ s2 /\ utf8_valid_b s2 = true /\
    enc true k s1 = (h :: e1') ++ enc true 0 s2 /\
    (forall T p' d', hstop T ->
       mlb_content (mkIn ((h :: e1') ++ enc true 0 s2 ++ T) p' d')
       = Ok c1 (after (h :: e1') (enc true 0 s2 ++ T) p' d')).
Proof.
  intros Hk Hne Hu H1. destruct s1 as [|b s0]; [congruence|].
  destruct (byte_eqb b x22) eqn:E.
  - (* a third quotation mark: written escaped *)
    destruct Hk as [-> | ->]; [specialize (H1 eq_refl); congruence|].
    apply byte_eqb_eq in E. subst b.
    exists x5c, [x22], [x22], s0.
    split; [reflexivity|]. split; [reflexivity|].
    split; [rewrite utf8_cons_ascii in Hu by reflexivity; exact Hu|].
    split; [reflexivity|].
    intros T p' d' HT. cbn [app].
    destruct quote_escape_spec as [Q1 [Q2 Q3]].
    rewrite (mlb_content_simple x22 _ _ p' d' Q1 Q3), Q2. reflexivity.
  - destruct (enc_cons_other true b E) as [h [pre [Hh He]]].
    assert (Hb : true = true -> byte_eqb b x22 = false) by (intros _; exact E).
    destruct (mlb_step b s0 Hu Hb) as [c1 [s2 [e1 [Hs [Hne1 [Henc [Hu2 HP]]]]]]].
    destruct e1 as [|h' e1']; [congruence|].
    assert (Hhh : h' = h).
    { rewrite (He 0%N s0) in Henc. cbn [app] in Henc. injection Henc as Hx _. congruence. }
    subst h'.
    exists h, e1', c1, s2.
    split; [exact Hh|]. split; [exact Hs|]. split; [exact Hu2|].
    split; [rewrite enc_seq_other by exact E; exact Henc|exact HP].
Qed.

Lemma Btail_step f acc i acc' i' :
  mlb_quote_loop (S f) acc i = mlb_quote_loop f acc' i' -> Btail (S f) acc i = Btail f acc' i'.
Proof. intro H. unfold Btail, bind. rewrite H. reflexivity. Qed.

(* a string that starts with a quotation mark: its first one or two marks are written as they are *)
Lemma quote_run_cases s : starts_q x22 s ->
  s = [] \/ s = [x22] \/ s = [x22; x22] \/
  exists k qs s1, (k = 1%N /\ qs = [x22] \/ k = 2%N /\ qs = [x22; x22]) /\ s = qs ++ s1 /\ s1 <> [] /\
    (k = 1%N -> match s1 with b :: _ => byte_eqb b x22 = false | [] => True end) /\
    enc true 0 s = qs ++ enc true k s1.
Proof.
  intro H. destruct s as [|b0 s1]; [auto|]. cbn in H. apply byte_eqb_eq in H. subst b0.
  destruct s1 as [|b1 s2]; [auto|].
  destruct (byte_eqb b1 x22) eqn:E1.
  - apply byte_eqb_eq in E1. subst b1. destruct s2 as [|b2 s3]; [auto|].
    right; right; right. exists 2%N, [x22; x22], (b2 :: s3).
    split; [auto|]. split; [reflexivity|]. split; [discriminate|]. split; [intro; discriminate|].
    rewrite enc_q0, enc_q1. reflexivity.
  - right; right; right. exists 1%N, [x22], (b1 :: s2).
    split; [auto|]. split; [reflexivity|]. split; [discriminate|]. split; [intros _; exact E1|].
    rewrite enc_q0. reflexivity.
Qed.

Lemma mlb_tail : forall fuel s acc r p d,
  starts_q x22 s -> utf8_valid_b s = true -> not_head x22 r ->
  length (enc true 0 s ++ DQ r) < fuel ->
  Btail fuel acc (mkIn (enc true 0 s ++ DQ r) p d) = Ok (acc ++ s) (after (enc true 0 s) (DQ r) p d).
Proof.
  induction fuel as [|f IH]; intros s acc r p d Hq Hu Hr Hf; [inversion Hf|].
  destruct (quote_run_cases s Hq) as [E | [E | [E | E]]];
    try (subst s; apply (mlb_end _ acc (S f) r p d); [auto|exact Hr|apply Nat.lt_0_succ]).
  destruct E as [k [qs [s1 [Hk [Hs [Hne [Hk1 Henc]]]]]]].
  assert (Hqs : qs = [x22] \/ qs = [x22; x22]) by (destruct Hk as [[_ H] | [_ H]]; auto).
  assert (Hk' : (k = 1 \/ k = 2)%N) by (destruct Hk as [[H _] | [H _]]; auto).
  assert (Hu1 : utf8_valid_b s1 = true).
  { rewrite Hs in Hu. destruct Hqs as [-> | ->]; cbn [app] in Hu;
      rewrite !utf8_cons_ascii in Hu by reflexivity; exact Hu. }
  destruct (mlb_after_quotes k s1 Hk' Hne Hu1 Hk1) as [h [e1' [c1 [s2 [Hh [Hs1 [Hu2 [Henc1 HP]]]]]]]].
  destruct (mlb_iter f acc qs h e1' c1 s2 r p d Hqs Hh HP Hu2) as [c' [s3 [Hs2 [Hq3 [Hu3 [Henc2 Hit]]]]]].
  assert (Hfull : enc true 0 s = qs ++ (h :: e1') ++ enc true 0 c' ++ enc true 0 s3).
  { rewrite Henc, Henc1, Henc2. reflexivity. }
  rewrite Hfull. rewrite <- !app_assoc.
  rewrite Henc2 in Hit. rewrite <- ?app_assoc in Hit.
  rewrite (Btail_step _ _ _ _ _ Hit).
  rewrite IH; auto.
  - apply ok_inp.
    { rewrite Hs, Hs1, Hs2. rewrite <- !app_assoc. reflexivity. }
    unfold after. apply mkIn_eq; [reflexivity|]. clear. repeat (rewrite ?app_length; cbn [length]). lia.
  - rewrite Hfull, <- !app_assoc in Hf. rewrite (app_assoc qs), (app_assoc (qs ++ _)) in Hf.
    refine (fuel_step _ _ _ _ Hf). destruct Hqs as [-> | ->]; discriminate.
Qed.

(* ---- ml_basic_body / ml_basic_string ------------------------------------------------------------- *)
Lemma ml_basic_body_rt s r p d : utf8_valid_b s = true -> not_head x22 r ->
  ml_basic_body (mkIn (enc true 0 s ++ DQ r) p d) = Ok s (after (enc true 0 s) (DQ r) p d).
Proof.
  intros Hu Hr. unfold ml_basic_body.
  change (pvoid (lit ML_BASIC_STRING_DELIM)) with (t_delim x22).
  destruct (mlb_chunks s r [] p d (S (length (enc true 0 s ++ DQ r))) Hu) as [c [s' [Hs [Hq' [Hu' [Henc Hch]]]]]]; [lia|].
  assert (Hc : chunks mlb_content (mkIn (enc true 0 s ++ DQ r) p d)
               = Ok c (after (enc true 0 c) (enc true 0 s' ++ DQ r) p d)).
  { unfold chunks. cbn [rest]. rewrite Hch. reflexivity. }
  rewrite (bind_ok _ _ _ _ _ Hc).
  change (Btail (S (length (rest (after (enc true 0 c) (enc true 0 s' ++ DQ r) p d)))) c
            (after (enc true 0 c) (enc true 0 s' ++ DQ r) p d)
          = Ok s (after (enc true 0 s) (DQ r) p d)).
  unfold after at 1 2. cbn [rest].
  rewrite (mlb_tail _ s'); auto.
  apply ok_inp; [symmetry; exact Hs|]. unfold after. apply mkIn_eq; [reflexivity|].
  rewrite Henc, app_length. lia.
Qed.

Definition ml_basic_token (nl : bool) (s : bytes) : bytes :=
  [x22; x22; x22] ++ (if nl then [x0a] else []) ++ enc true 0 s ++ [x22; x22; x22].

(* without the newline prefix the encoded body does not start with a line end *)
Lemma enc_head_not_nl s r : forallb (fun b => negb (byte_eqb b x0a)) s = true ->
  match enc true 0 s ++ DQ r with [] => True | b :: _ => byte_eqb b x0a = false /\ byte_eqb b x0d = false end.
Proof.
  intro H. destruct s as [|b s]; [cbn; auto|].
  cbn [forallb] in H. apply andb_true_iff in H as [Hb _].
  destruct (byte_eqb b x22) eqn:E22.
  { apply byte_eqb_eq in E22. subst b. rewrite enc_q0. cbn. auto. }
  cbn [enc]. rewrite E22.
  destruct (short_escape true b) as [c|] eqn:Es; [cbn; auto|].
  destruct (byte_eqb b x0a) eqn:E0a; [discriminate|].
  destruct (is_ctrl b) eqn:Ec; [unfold u_escape; cbn; auto|].
  cbn [app]. split; [exact E0a|]. byten. lia.
Qed.

Lemma ml_basic_string_rt nl s r p d : utf8_valid_b s = true -> not_head x22 r ->
  (nl = false -> forallb (fun b => negb (byte_eqb b x0a)) s = true) ->
  ml_basic_string (mkIn (ml_basic_token nl s ++ r) p d) = Ok s (after (ml_basic_token nl s) r p d).
Proof.
  intros Hu Hr Hnl. unfold ml_basic_token. rewrite <- !app_assoc. unfold ml_basic_string.
  rewrite (bind_ok _ _ _ _ _ (lit_yes [x22; x22; x22] _ p d)).
  set (p0 := (p + N.of_nat (length [x22; x22; x22]))%N). unfold after at 1. fold p0.
  set (p1 := (p0 + (if nl then 1 else 0))%N).
  assert (Hbody : context (opt newline ;;; cut_err ml_basic_body)
                    (mkIn ((if nl then [x0a] else []) ++ enc true 0 s ++ [x22; x22; x22] ++ r) p0 d)
                  = Ok s (after (enc true 0 s) (DQ r) p1 d)).
  { apply context_ok.
    assert (Hopt : opt newline (mkIn ((if nl then [x0a] else []) ++ enc true 0 s ++ [x22; x22; x22] ++ r) p0 d)
                   = Ok (if nl then Some tt else None) (mkIn (enc true 0 s ++ DQ r) p1 d)).
    { unfold p1. destruct nl; cbn [app].
      - erewrite opt_ok; [|apply newline_lf]. reflexivity.
      - rewrite opt_newline_none; [apply ok_inp; [reflexivity|apply mkIn_eq; [reflexivity|lia]]|].
        apply (enc_head_not_nl s r). apply Hnl. reflexivity. }
    rewrite (bind_ok _ _ _ _ _ Hopt). apply cut_err_ok. apply ml_basic_body_rt; assumption. }
  rewrite (bind_ok _ _ _ _ _ Hbody). unfold after at 1. unfold DQ.
  rewrite (bind_ok _ _ _ _ _ (context_ok _ _ _ _ (cut_err_ok _ _ _ _ (lit_yes [x22; x22; x22] r _ d)))).
  unfold ret. apply ok_inp; [reflexivity|]. unfold after. apply mkIn_eq; [reflexivity|].
  unfold p1, p0. rewrite !app_length. cbn [length]. destruct nl; cbn [length]; lia.
Qed.
