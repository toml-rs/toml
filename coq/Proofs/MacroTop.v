(* Proofs/MacroTop.v — C19: the whole claim on the model.  For every document written with the spellings
   `macro_supported` describes and valid by the TOML definition rules (`eval l = Some t`), expanding
   `toml!{ tokens_of l }` with the rules of macros.rs returns exactly t — within the model's own fuel. *)
From TV Require Import Base.Prelude Model.Macro Spec.Defs Spec.MacroSpec.
From TV Require Import Proofs.MacroEval Proofs.MacroStmt Proofs.MacroDoc Proofs.MacroFuel Proofs.MacroDt Proofs.MacroEq.

Theorem macro_eq_parse : forall l t, macro_supported l = true -> eval l = Some t -> macro_eval (tokens_of l) = EOk t.
Proof.
  intros l t Hs He. destruct (tokens_nonempty l Hs) as [Hne Hok].
  unfold eval in He. destruct (ref_fold sstate0 l) as [[t1 c1]|] eqn:E; [|discriminate]. injection He as <-.
  eapply Ev_macro_eval; [exact Hne| |apply dcost_fuel; exact Hok].
  exact (doc_ev dt_agree l [] [] (t1, c1) Hok E).
Qed.

(* every supported value on its own: what @value (after the sign / date-time rules) yields is its TOML meaning *)
Theorem value_eq_parse : forall v m, val_ok v = true -> val_meaning v = Some m -> val_ev v m (vcost v).
Proof. exact (val_ev_holds dt_agree). Qed.

(* the expansion never runs out of the fuel the model provides, and never fails, on supported valid documents *)
Corollary macro_total : forall l, macro_supported l = true -> valid l -> exists t, macro_eval (tokens_of l) = EOk t.
Proof. intros l Hs [t Ht]. exists t. apply macro_eq_parse; assumption. Qed.

(* against the unmodified claims specification (Spec/Defs.v `spec_run`, what C09 proves the parser's state
   machine equal to): the macro's table has the same content as the specified tree under every key,
   recursively; only the order of keys may differ (a toml::Table is a BTreeMap: not observable) *)
Theorem macro_eq_spec : forall l tr, macro_supported l = true -> spec_eval l = Some tr ->
  exists t, macro_eval (tokens_of l) = EOk (MTab (erase_tree t)) /\ Same mval t tr.
Proof.
  intros l tr Hs H. destruct (eval_same_as_spec l tr H) as [t [He HS]].
  exists t. split; [apply macro_eq_parse; assumption|exact HS].
Qed.
