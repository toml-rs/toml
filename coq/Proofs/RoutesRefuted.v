(* Proofs/RoutesRefuted.v — C13: the witnesses of the two defects of the toml::Value family REPAIRED in /repo,
   as positive regression statements (nothing is refuted in this file):
     C13-tryinto-datetime-string   `impl Deserializer for toml::Value` handed a date-time to the visitor as a
                                   string; it goes through toml_datetime's private struct, as in toml_edit
     C13-tryfrom-datetime-table    toml::value::ValueSerializer::serialize_struct ignored the tunnel name and
                                   wrote { "$__toml_private_datetime" = "<text>" }; it yields Value::Datetime *)
From TV Require Import Base.Prelude Model.Datetime Spec.SerdeData Model.Ser Model.SerdeRoutes Extract.Show.
Require Import String.

(* struct S { d: Datetime }      S { d: 1979-05-27T07:32:00Z } *)
Definition dt_ty : ty := TStruct (str "S") [(str "d", TDatetime KDatetime)].
Definition dt_d : datetime := mkDT (Some (mkDate 1979 5 27)) (Some (mkTime 7 32 0 0)) (Some OffZ).
Definition dt_val : sval := SRec [SDt dt_d].
Definition dt_tree : tomlval := VTab [(str "d", VDatetime dt_d)].

(* every route, the ones through toml::Value / toml::Table included, returns the value *)
Theorem on_serialized_datetime :
  has_type dt_val dt_ty /\ ser_toml_root dt_ty dt_val = Ok dt_tree
  /\ to_toml_value dt_tree = Ok dt_tree /\ to_toml_table dt_tree = Ok dt_tree
  /\ forall r, decode r dt_ty dt_tree = Ok dt_val.
Proof. repeat split; try (vm_compute; reflexivity). intro r. destruct r; vm_compute; reflexivity. Qed.

(* Value::try_from / Table::try_from give the tree the serialized text parses to, date-time included *)
Theorem try_from_datetime :
  ser_toml_root dt_ty dt_val = Ok dt_tree /\ to_toml_value dt_tree = Ok dt_tree
  /\ tv_ser dt_ty dt_val = Ok dt_tree /\ tv_ser_table dt_ty dt_val = Ok dt_tree.
Proof. repeat split; vm_compute; reflexivity. Qed.

(* a String target does not get the text of a date-time, on any route (as toml::from_str answers) *)
Theorem datetime_is_not_a_string :
  forall r, decode r (TStruct (str "S") [(str "d", TStr)]) dt_tree = Err EDe.
Proof. intro r. destruct r; vm_compute; reflexivity. Qed.

(* the witness of the repaired C06-root-datetime-printed-as-table (crates/toml/src/ser.rs serialize_struct dropped
   the struct name): a Datetime at the ROOT.  The single-value serializer writes the date-time itself, which every
   single-value route reads back; the document serializers refuse it as a non-table, toml's like toml_edit's;
   Value::try_from yields the date-time; Table::try_from refuses it (also behind Some / a newtype struct) as a non-table
   since value.rs TableSerializer::serialize_struct refuses toml_datetime's private struct (before: the private-key table). *)
Definition rdt_ty : ty := TDatetime KDatetime.
Definition rdt_val : sval := SDt dt_d.
Theorem root_datetime :
  has_type rdt_val rdt_ty
  /\ ser_value_text rdt_ty rdt_val = Ok (VDatetime dt_d) /\ ser_value rdt_ty rdt_val = Ok (VDatetime dt_d)
  /\ tv_ser rdt_ty rdt_val = Ok (VDatetime dt_d)
  /\ ser_toml_root rdt_ty rdt_val = Err (EUnsupportedType None) /\ ser_edit_root rdt_ty rdt_val = Err (EUnsupportedType None)
  /\ (forall r, r = R_tvd \/ r = R_evd \/ r = R_tvdval -> decode r rdt_ty (VDatetime dt_d) = Ok rdt_val)
  /\ tv_ser_table rdt_ty rdt_val = Err (EUnsupportedType None)
  /\ tv_ser_table (TOpt rdt_ty) (SSome rdt_val) = Err (EUnsupportedType None)
  /\ tv_ser_table (TNewtype (str "W") rdt_ty) (SNewtype rdt_val) = Err (EUnsupportedType None).
Proof.
  repeat split; try (vm_compute; reflexivity).
  intros r [-> | [-> | ->]]; vm_compute; reflexivity.
Qed.

