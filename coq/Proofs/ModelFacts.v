(* Proofs/ModelFacts.v — small facts about the model alone that several families of proofs start from:
   unfolding equations of its nested loops, and characterisations of its helper functions. *)
From TV Require Import Base.Prelude Gen.Consts.
From TV Require Import Model.Tree Model.Parse Model.Encode.
From TV Require Import Spec.Lex Spec.WF.

(* ---- Encode: the nested loops of `encode_value` as functions ------------------------------------------------------ *)
Fixpoint enc_elems (f : nat) (first : bool) (l : list item) : bytes :=
  match l with
  | [] => []
  | it :: tl =>
    (match it with
     | IValue e => (if first then [] else [x2c])
                   ++ encode_value f e (if first then DEFAULT_LEADING_VALUE_DECOR else DEFAULT_VALUE_DECOR)
     | _ => []
     end) ++ enc_elems f (match it with IValue _ => false | _ => first end) tl
  end.

Fixpoint enc_kvs (f len : nat) (i : nat) (l : list (list key * value)) : bytes :=
  match l with
  | [] => []
  | (kp, e) :: tl =>
    (if Nat.eqb i 0 then [] else [x2c])
    ++ encode_key_path kp DEFAULT_INLINE_KEY_DECOR ++ [x3d]
    ++ encode_value f e (if Nat.eqb i (len - 1) then DEFAULT_TRAILING_VALUE_DECOR else DEFAULT_VALUE_DECOR)
    ++ enc_kvs f len (S i) tl
  end.

Lemma enc_scalar f sc r d dflt :
  encode_value (S f) (VScalar sc r d) dflt =
  decor_prefix d (fst dflt) ++ (match repr_str r with Some t => t | None => scalar_default_repr sc end) ++ decor_suffix d (snd dflt).
Proof. reflexivity. Qed.

Lemma enc_array f vals tr comma d sp dflt :
  encode_value (S f) (VArray vals tr comma d sp) dflt =
  decor_prefix d (fst dflt) ++ [x5b] ++ enc_elems f true vals
  ++ (if comma && negb (match vals with [] => true | _ => false end) then [x2c] else [])
  ++ raw_encode tr [] ++ [x5d] ++ decor_suffix d (snd dflt).
Proof.
  cbn [encode_value]. do 2 f_equal. f_equal.
  generalize true. induction vals as [|it tl IH]; intro first; [reflexivity|]. cbn [enc_elems]. rewrite <- IH. reflexivity.
Qed.

Lemma enc_inline f items pre im dt d sp dflt :
  encode_value (S f) (VInline items pre im dt d sp) dflt =
  let children := inline_values (S (value_size (VInline items pre im dt d sp))) [] items in
  decor_prefix d (fst dflt) ++ [x7b] ++ raw_encode pre []
  ++ enc_kvs f (length children) 0 children ++ [x7d] ++ decor_suffix d (snd dflt).
Proof.
  cbn [encode_value]. cbv zeta.
  set (children := inline_values (S (value_size (VInline items pre im dt d sp))) [] items).
  set (len := length children). clearbody len. clearbody children.
  do 3 f_equal. f_equal.
  enough (H : forall i,
    (fix kvs_ (i0 : nat) (l : list (list key * value)) {struct l} : bytes :=
       match l with
       | [] => []
       | (kp, e) :: tl =>
         (if Nat.eqb i0 0 then [] else [x2c]) ++ encode_key_path kp DEFAULT_INLINE_KEY_DECOR ++ [x3d]
         ++ encode_value f e (if Nat.eqb i0 (len - 1) then DEFAULT_TRAILING_VALUE_DECOR else DEFAULT_VALUE_DECOR)
         ++ kvs_ (S i0) tl
       end) i children = enc_kvs f len i children) by apply H.
  induction children as [|[kp e] tl IH]; intro i; [reflexivity|]. cbn [enc_kvs]. rewrite <- IH. reflexivity.
Qed.

(* ---- Parse ---------------------------------------------------------------------------------------------------------- *)
(* fix_key_path only moves decor between keys: whatever a function of keys does not read in the decor it keeps *)
Lemma fix_key_path_map {B} (f : key -> B) :
  (forall k d, f (set_leaf k d) = f k) -> (forall k r, f (set_dotted_prefix k r) = f k) ->
  (forall k r, f (set_dotted_suffix k r) = f k) ->
  forall path p, fix_key_path path = Some p -> map f p = map f path.
Proof.
  intros Hl Hp Hs path p. unfold fix_key_path. destruct path as [|first tl]; [discriminate|].
  set (first' := match d_prefix (k_dotted first) with Some _ => set_dotted_prefix first REmpty | None => first end).
  assert (Hf : f first' = f first) by (subst first'; destruct (d_prefix (k_dotted first)); [apply Hp|reflexivity]).
  destruct (rev (first' :: tl)) as [|last rinit] eqn:R; [discriminate|]. intro E. inversion E; subst p. clear E.
  cbn [rev]. rewrite map_app. cbn [map]. rewrite Hl.
  replace (f match d_suffix (k_dotted last) with Some _ => set_dotted_suffix last REmpty | None => last end) with (f last)
    by (destruct (d_suffix (k_dotted last)); [symmetry; apply Hs|reflexivity]).
  change (map f (rev rinit) ++ [f last]) with (map f (rev rinit) ++ map f [last]).
  rewrite <- map_app. change (rev rinit ++ [last]) with (rev (last :: rinit)). rewrite <- R, rev_involutive.
  cbn [map]. rewrite Hf. reflexivity.
Qed.
Lemma fix_key_path_length path p : fix_key_path path = Some p -> length p = length path.
Proof.
  intro H. rewrite <- (map_length (fun _ => tt) p), <- (map_length (fun _ => tt) path). f_equal.
  revert H. apply fix_key_path_map; reflexivity.
Qed.

Lemma value_depth_decorate v p s : value_depth (value_decorate v p s) = value_depth v.
Proof. destruct v; reflexivity. Qed.

(* ---- Encode: sizes (the fuel of the printer's loops) ------------------------------------------------------------------ *)
Lemma item_size_in (l : list item) it : In it l -> item_size it <= fold_right (fun x acc => item_size x + acc) 0 l.
Proof. induction l as [|x l IH]; [intros []|]. intros [-> | H]; cbn [fold_right]; [lia|]. specialize (IH H). lia. Qed.
Lemma kv_size_in (m : kvs) kv :
  In kv m -> item_size (snd kv) <= fold_right (fun kv acc => match kv with (_, i0) => item_size i0 + acc end) 0 m.
Proof.
  induction m as [|[k0 x] m IH]; [intros []|]. intros [<- | H]; cbn [fold_right snd]; [lia|]. specialize (IH H). lia.
Qed.
Lemma tbl_size_in (ts : list tbl) t : In t ts -> tbl_size t <= fold_right (fun t acc => tbl_size t + acc) 0 ts.
Proof. induction ts as [|x l IH]; [intros []|]. intros [-> | H]; cbn [fold_right]; [lia|]. specialize (IH H). lia. Qed.

(* ---- trivia (Spec/Lex.v, Spec/WF.v) ----------------------------------------------------------------------------------- *)
Lemma ws_nil : ws_tok []. Proof. reflexivity. Qed.
Lemma ws_line_trail w : ws_tok w -> line_trail_tok w.
Proof. intro H. exists w, []. split; [rewrite app_nil_r; reflexivity|]. split; [exact H|left; reflexivity]. Qed.
