(* Proofs/VisitComplete.v — the default walks of Model/Visit.v reach every node of
   Spec/Nodes.v exactly once, in document order; the mutable walk leaves the tree as
   Spec.map_scalars says.  Property C20. *)
From TV Require Import Base.Prelude Model.Tree Model.Visit Spec.Nodes.
Require Import Sorted.
From TV Require Import Base.ListFacts.

(* the hook that matches a value: visit_string .. visit_datetime for the five scalar kinds,
   visit_array, visit_inline_table *)
Definition value_meth (v : value) : meth :=
  match v with
  | VScalar s _ _ => scalar_meth s
  | VArray _ _ _ _ _ => MArray
  | VInline _ _ _ _ _ _ => MInlineTable
  end.

(* the call "the matching visit method on node n" *)
Definition node_hook (n : node) : event :=
  match n with
  | NTable t => (MTable, ATable t)
  | NKv k i => (MTableLikeKv, AKv k i)
  | NAot ts sp => (MArrayOfTables, AAot ts sp)
  | NValue v => (value_meth v, AValue v)
  end.

(* every call a default walk makes on account of node n itself (not of its children):
   the matching hook, and the dispatching hooks around it (visit_value in front of a value's
   own hook, visit_item behind a pair's, visit_table_like behind a table's / inline table's) *)
Definition hooks_of (n : node) : list event :=
  match n with
  | NTable t => [node_hook n; (MTableLike, ALike false (t_items t))]
  | NKv k i => [node_hook n; (MItem, AItem i)]
  | NAot _ _ => [node_hook n]
  | NValue v =>
    (MValue, AValue v) :: node_hook n
    :: match v with
       | VInline items _ _ _ _ _ => [(MTableLike, ALike true items)]
       | _ => []
       end
  end.

(* the dispatching hooks are visit_document, visit_item, visit_table_like, visit_value;
   all others are handed exactly one kind of node *)
Definition is_node_hook (e : event) : bool :=
  match fst e with
  | MDocument | MItem | MTableLike | MValue => false
  | _ => true
  end.

(* the whole log a default walk must produce *)
Definition expected_log (t : tbl) : list event := (MDocument, ADoc t) :: flat_map hooks_of (nodes t).

Section TreeInd.
  Variables (Pv : value -> Prop) (Pi : item -> Prop) (Pt : tbl -> Prop).
  Hypothesis Hscalar : forall s r d, Pv (VScalar s r d).
  Hypothesis Harray : forall vals tr c d sp, Forall Pi vals -> Pv (VArray vals tr c d sp).
  Hypothesis Hinline : forall items pre im dt d sp,
      Forall (fun kv => Pi (snd kv)) items -> Pv (VInline items pre im dt d sp).
  Hypothesis Hnone : Pi INone.
  Hypothesis Hvalue : forall v, Pv v -> Pi (IValue v).
  Hypothesis Htable : forall t, Pt t -> Pi (ITable t).
  Hypothesis Haot : forall ts sp, Forall Pt ts -> Pi (IAot ts sp).
  Hypothesis Htbl : forall items d im dt p sp,
      Forall (fun kv => Pi (snd kv)) items -> Pt (Tbl items d im dt p sp).

  Fixpoint value_ind3 (v : value) : Pv v :=
    match v with
    | VScalar s r d => Hscalar s r d
    | VArray vals tr c d sp =>
      Harray vals tr c d sp
             ((fix go (l : list item) : Forall Pi l :=
                 match l with
                 | [] => Forall_nil _
                 | x :: tl => Forall_cons x (item_ind3 x) (go tl)
                 end) vals)
    | VInline items pre im dt d sp =>
      Hinline items pre im dt d sp
              ((fix go (l : kvs) : Forall (fun kv => Pi (snd kv)) l :=
                  match l with
                  | [] => Forall_nil _
                  | kv :: tl =>
                    Forall_cons kv (match kv as kv0 return Pi (snd kv0) with (k, i) => item_ind3 i end) (go tl)
                  end) items)
    end
  with item_ind3 (i : item) : Pi i :=
    match i with
    | INone => Hnone
    | IValue v => Hvalue v (value_ind3 v)
    | ITable t => Htable t (tbl_ind3 t)
    | IAot ts sp =>
      Haot ts sp
           ((fix go (l : list tbl) : Forall Pt l :=
               match l with
               | [] => Forall_nil _
               | x :: tl => Forall_cons x (tbl_ind3 x) (go tl)
               end) ts)
    end
  with tbl_ind3 (t : tbl) : Pt t :=
    match t with
    | Tbl items d im dt p sp =>
      Htbl items d im dt p sp
           ((fix go (l : kvs) : Forall (fun kv => Pi (snd kv)) l :=
               match l with
               | [] => Forall_nil _
               | kv :: tl =>
                 Forall_cons kv (match kv as kv0 return Pi (snd kv0) with (k, i) => item_ind3 i end) (go tl)
               end) items)
    end.

  Lemma tree_ind3 : (forall v, Pv v) /\ (forall i, Pi i) /\ (forall t, Pt t).
  Proof. exact (conj value_ind3 (conj item_ind3 tbl_ind3)). Qed.
End TreeInd.

Lemma rose_ind2 (P : rose -> Prop) :
  (forall n cs, Forall P cs -> P (Rose n cs)) -> forall r, P r.
Proof.
  intros H.
  exact (fix rec (r : rose) : P r :=
           match r with
           | Rose n cs =>
             H n cs ((fix go (l : list rose) : Forall P l :=
                        match l with
                        | [] => Forall_nil _
                        | x :: tl => Forall_cons x (rec x) (go tl)
                        end) cs)
           end).
Qed.

Lemma flat_map_Forall_ext {A B} (f g : A -> list B) (l : list A) :
  Forall (fun x => f x = g x) l -> flat_map f l = flat_map g l.
Proof.
  induction 1 as [|x l Hx _ IH]; [reflexivity|]. cbn [flat_map]. rewrite Hx, IH. reflexivity.
Qed.

Lemma map_Forall_ext {A B} (f g : A -> B) (l : list A) :
  Forall (fun x => f x = g x) l -> map f l = map g l.
Proof.
  induction 1 as [|x l Hx _ IH]; [reflexivity|]. cbn [map]. rewrite Hx, IH. reflexivity.
Qed.

Lemma flat_map_singleton {A B} (f : A -> B) (l : list A) : flat_map (fun x => [f x]) l = map f l.
Proof. induction l as [|x l IH]; [reflexivity|]. cbn [flat_map map app]. rewrite IH. reflexivity. Qed.

(* the calls made for a whole subtree *)
Definition log_of (r : rose) : list event := flat_map hooks_of (preorder r).
Definition logs_of (rs : list rose) : list event := flat_map hooks_of (flat_map preorder rs).

Lemma logs_of_flat {A} (g : A -> list rose) (l : list A) :
  logs_of (flat_map g l) = flat_map (fun x => logs_of (g x)) l.
Proof.
  unfold logs_of. rewrite (flat_map_flat_map preorder g l).
  rewrite (flat_map_flat_map hooks_of). reflexivity.
Qed.

Lemma log_of_Rose n cs : log_of (Rose n cs) = hooks_of n ++ logs_of cs.
Proof. unfold log_of, logs_of. cbn [preorder flat_map]. reflexivity. Qed.

Lemma logs_of_one r : logs_of [r] = log_of r.
Proof. unfold logs_of, log_of. cbn [flat_map]. rewrite app_nil_r. reflexivity. Qed.

(* one entry of a table-like, as the walk and as the listing see it *)
Lemma entry_agree (inline : bool) (k : key) (i : item) :
  visit_item i = (MItem, AItem i) :: logs_of (rose_item i) ->
  (if like_yields inline i then visit_table_like_kv visit_item k i else [])
  = logs_of (match i with INone => [] | _ => [Rose (NKv k i) (rose_item i)] end).
Proof.
  intros IH. unfold visit_table_like_kv, like_yields.
  destruct i as [|v|t|ts sp]; cbn [item_is_none negb].
  - reflexivity.
  - rewrite logs_of_one, log_of_Rose, IH. reflexivity.
  - rewrite logs_of_one, log_of_Rose, IH. reflexivity.
  - rewrite logs_of_one, log_of_Rose, IH. reflexivity.
Qed.

Definition visit_value_ok (v : value) : Prop := visit_value v = log_of (rose_value v).
Definition visit_item_ok (i : item) : Prop := visit_item i = (MItem, AItem i) :: logs_of (rose_item i).
Definition visit_table_ok (t : tbl) : Prop := visit_table t = log_of (rose_tbl t).

Lemma visit_ok : (forall v, visit_value_ok v) /\ (forall i, visit_item_ok i) /\ (forall t, visit_table_ok t).
Proof.
  apply tree_ind3; unfold visit_value_ok, visit_item_ok, visit_table_ok.
  - (* scalar *) intros s r d. reflexivity.
  - (* array *)
    intros vals tr c d sp IH.
    cbn [visit_value rose_value]. unfold visit_array. rewrite log_of_Rose. cbn [hooks_of node_hook value_meth app].
    do 2 f_equal. rewrite logs_of_flat. apply flat_map_Forall_ext.
    eapply Forall_impl; [|exact IH]. intros it Hit.
    destruct it as [|e| |]; try reflexivity.
    rewrite logs_of_one.
    cbn [visit_item rose_item] in Hit. rewrite logs_of_one in Hit. injection Hit as Hit. exact Hit.
  - (* inline table *)
    intros items pre im dt d sp IH.
    cbn [visit_value rose_value]. unfold visit_table_like. rewrite log_of_Rose. cbn [hooks_of node_hook value_meth app].
    do 3 f_equal. rewrite logs_of_flat. apply flat_map_Forall_ext.
    eapply Forall_impl; [|exact IH]. intros [k i] Hit. cbn [snd] in Hit.
    apply entry_agree. exact Hit.
  - (* Item::None *) reflexivity.
  - (* Item::Value *)
    intros v IH. cbn [visit_item rose_item]. rewrite logs_of_one. f_equal. exact IH.
  - (* Item::Table *)
    intros t IH. cbn [visit_item rose_item]. rewrite logs_of_one. f_equal. exact IH.
  - (* Item::ArrayOfTables *)
    intros ts sp IH. cbn [visit_item rose_item]. unfold visit_array_of_tables.
    rewrite logs_of_one, log_of_Rose. cbn [hooks_of node_hook app]. do 2 f_equal.
    unfold logs_of. rewrite flat_map_map, flat_map_flat_map.
    apply flat_map_Forall_ext. exact IH.
  - (* table *)
    intros items d im dt p sp IH.
    cbn [visit_table rose_tbl]. unfold visit_table_like. rewrite log_of_Rose. cbn [hooks_of node_hook t_items app].
    do 2 f_equal. rewrite logs_of_flat. apply flat_map_Forall_ext.
    eapply Forall_impl; [|exact IH]. intros [k i] Hit. cbn [snd] in Hit.
    apply entry_agree. exact Hit.
Qed.

(* C20_visit *)
Theorem visit_log : forall t, visit_document t = expected_log t.
Proof.
  intros t. unfold visit_document, expected_log, nodes. f_equal.
  apply (proj2 (proj2 visit_ok)).
Qed.

Lemma filter_hooks_of n : filter is_node_hook (hooks_of n) = [node_hook n].
Proof.
  destruct n as [t|k i|ts sp|v]; try reflexivity.
  destruct v as [s r d| |]; try reflexivity. destruct s; reflexivity.
Qed.

(* the node-level hooks, in call order = the matching hook on each node, in document order *)
Theorem visit_hooks : forall t,
  filter is_node_hook (visit_document t) = map node_hook (nodes t).
Proof.
  intros t. rewrite (visit_log t). unfold expected_log.
  cbn [filter is_node_hook fst]. rewrite filter_flat_map.
  rewrite (flat_map_Forall_ext _ (fun n => [node_hook n])).
  - apply flat_map_singleton.
  - apply Forall_forall. intros n _. apply filter_hooks_of.
Qed.

(* regression for finding F11 (repaired in /repo): `t = {}` after `doc["t"]["x"]` holds an
   Item::None placeholder inside the inline table; before the repair
   `impl TableLike for InlineTable::iter` yielded it and the walk called
   visit_table_like_kv("x", Item::None) and visit_item(Item::None) for it *)
Definition placeholder_witness : tbl :=
  Tbl [(mkKey [x74] None decor_default decor_default,
        IValue (VInline [(mkKey [x78] None decor_default decor_default, INone)] REmpty false false decor_default None))]
      decor_default false false None None.

Lemma placeholder_not_visited :
  ~ In (MItem, AItem INone) (visit_document placeholder_witness)
  /\ map fst (visit_document placeholder_witness)
     = [MDocument; MTable; MTableLike; MTableLikeKv; MItem; MValue; MInlineTable; MTableLike].
Proof.
  split; [|reflexivity].
  cbn. intros H. repeat (destruct H as [H|H]; [discriminate H|]). exact H.
Qed.

Lemma for_each_mut_spec {A} (f : A -> list event * A) (l : list A) :
  for_each_mut f l = (flat_map (fun a => fst (f a)) l, map (fun a => snd (f a)) l).
Proof.
  induction l as [|a l IH]; [reflexivity|].
  cbn [for_each_mut flat_map map]. fold (for_each_mut f). rewrite IH.
  destruct (f a) as [e a']. reflexivity.
Qed.

(* ... so a loop whose body logs g and rebuilds h on every element logs and rebuilds the whole list so *)
Lemma for_each_mut_ext {A} (f : A -> list event * A) (g : A -> list event) (h : A -> A) (l : list A) :
  Forall (fun a => f a = (g a, h a)) l -> for_each_mut f l = (flat_map g l, map h l).
Proof.
  intro H. rewrite for_each_mut_spec. f_equal; [apply flat_map_Forall_ext|apply map_Forall_ext];
    (eapply Forall_impl; [|exact H]); intros a ->; reflexivity.
Qed.

Section MutProofs.
  Variable hook : scalar -> option scalar.

  Definition mut_value_ok (v : value) : Prop :=
    visit_value_mut hook v = (visit_value v, map_value hook v).
  Definition mut_item_ok (i : item) : Prop :=
    visit_item_mut hook i = (visit_item i, map_item hook i).
  Definition mut_table_ok (t : tbl) : Prop :=
    visit_table_mut hook t = (visit_table t, map_tbl hook t).

  (* unfolding equations (the mutual fixpoint, one step, in folded form) *)
  Lemma visit_value_mut_eq v :
    visit_value_mut hook v =
    match (match v with
           | VScalar s r d => visit_scalar_mut hook s r d
           | VArray vals tr c d sp =>
             match visit_array_mut (visit_value_mut hook) v vals with
             | (e, vals') => (e, VArray vals' tr c d sp)
             end
           | VInline items pre im dt d sp =>
             match visit_table_like_mut (visit_item_mut hook) true items with
             | (e, items') => ((MInlineTable, AValue v) :: e, VInline items' pre im dt d sp)
             end
           end) with
    | (e, v') => ((MValue, AValue v) :: e, v')
    end.
  Proof. destruct v; reflexivity. Qed.

  Lemma visit_item_mut_eq i :
    visit_item_mut hook i =
    match (match i with
           | INone => ([], INone)
           | IValue v => match visit_value_mut hook v with (e, v') => (e, IValue v') end
           | ITable t => match visit_table_mut hook t with (e, t') => (e, ITable t') end
           | IAot ts sp =>
             match visit_array_of_tables_mut (visit_table_mut hook) ts sp with (e, ts') => (e, IAot ts' sp) end
           end) with
    | (e, i') => ((MItem, AItem i) :: e, i')
    end.
  Proof. destruct i; reflexivity. Qed.

  Lemma visit_table_mut_eq t :
    visit_table_mut hook t =
    match t with
    | Tbl items d im dt p sp =>
      match visit_table_like_mut (visit_item_mut hook) false items with
      | (e, items') => ((MTable, ATable t) :: e, Tbl items' d im dt p sp)
      end
    end.
  Proof. destruct t; reflexivity. Qed.

  Lemma mut_item_value_inv e : mut_item_ok (IValue e) -> mut_value_ok e.
  Proof.
    unfold mut_item_ok, mut_value_ok. rewrite visit_item_mut_eq.
    destruct (visit_value_mut hook e) as [ev e']. cbn [visit_item map_item].
    intros H. injection H as H1 H2. subst. reflexivity.
  Qed.

  Lemma like_mut_agree (inline : bool) (items : kvs) :
    Forall (fun kv => mut_item_ok (snd kv)) items ->
    visit_table_like_mut (visit_item_mut hook) inline items
    = (visit_table_like visit_item inline items,
       map (fun kv => match kv with (k, i) => (k, map_item hook i) end) items).
  Proof.
    intros IH. unfold visit_table_like_mut, visit_table_like.
    rewrite (for_each_mut_ext _
               (fun kv => match kv with (k, i) => if like_yields inline i then visit_table_like_kv visit_item k i else [] end)
               (fun kv => match kv with (k, i) => (k, map_item hook i) end)); [reflexivity|].
    eapply Forall_impl; [|exact IH]. intros [k i] Hi. cbn [snd] in Hi. unfold mut_item_ok in Hi.
    unfold visit_table_like_kv_mut, visit_table_like_kv. rewrite Hi.
    destruct (like_yields inline i) eqn:Hy; [reflexivity|].
    (* not yielded: an Item::None entry, which map_item leaves alone *)
    unfold like_yields in Hy. destruct i; try discriminate Hy. reflexivity.
  Qed.

  Lemma mut_ok : (forall v, mut_value_ok v) /\ (forall i, mut_item_ok i) /\ (forall t, mut_table_ok t).
  Proof.
    apply tree_ind3; unfold mut_value_ok, mut_item_ok, mut_table_ok.
    - (* scalar *)
      intros s r d. rewrite visit_value_mut_eq. cbn [visit_value map_value]. unfold visit_scalar_mut.
      destruct (hook s); reflexivity.
    - (* array *)
      intros vals tr c d sp IH.
      rewrite visit_value_mut_eq. cbn [visit_value map_value]. unfold visit_array_mut, visit_array.
      rewrite (for_each_mut_ext _ (fun it => match it with IValue e => visit_value e | _ => [] end)
                                  (fun it => match it with IValue e => IValue (map_value hook e) | _ => it end));
        [reflexivity|].
      eapply Forall_impl; [|exact IH]. intros it Hit.
      destruct it as [|e| |]; try reflexivity.
      apply mut_item_value_inv in Hit. unfold mut_value_ok in Hit. rewrite Hit. reflexivity.
    - (* inline table *)
      intros items pre im dt d sp IH.
      rewrite visit_value_mut_eq. cbn [visit_value map_value]. rewrite (like_mut_agree true items IH). reflexivity.
    - (* Item::None *) reflexivity.
    - (* Item::Value *)
      intros v IH. rewrite visit_item_mut_eq. cbn [visit_item map_item]. rewrite IH. reflexivity.
    - (* Item::Table *)
      intros t IH. rewrite visit_item_mut_eq. cbn [visit_item map_item]. rewrite IH. reflexivity.
    - (* Item::ArrayOfTables *)
      intros ts sp IH. rewrite visit_item_mut_eq. cbn [visit_item map_item].
      unfold visit_array_of_tables_mut, visit_array_of_tables.
      rewrite (for_each_mut_ext _ visit_table (map_tbl hook) ts); [reflexivity|exact IH].
    - (* table *)
      intros items d im dt p sp IH.
      rewrite visit_table_mut_eq. cbn [visit_table map_tbl]. rewrite (like_mut_agree false items IH). reflexivity.
  Qed.

  (* whatever the scalar hooks do, the mutable walk makes the same calls as the read-only walk
     and leaves behind the tree in which exactly the scalars were rewritten *)
  Theorem mut_walk : forall t,
    visit_document_mut hook t = (visit_document t, map_scalars hook t).
  Proof.
    intros t. unfold visit_document_mut, visit_document, map_scalars.
    rewrite (proj2 (proj2 mut_ok) t). reflexivity.
  Qed.
End MutProofs.

(* unfolding equations of map_scalars (one step, folded) *)
Lemma map_value_eq g v :
  map_value g v =
  match v with
  | VScalar s r d => match g s with Some s' => VScalar s' None d | None => v end
  | VArray vals tr c d sp =>
    VArray (map (fun it => match it with IValue e => IValue (map_value g e) | _ => it end) vals) tr c d sp
  | VInline items pre im dt d sp =>
    VInline (map (fun kv => match kv with (k, i) => (k, map_item g i) end) items) pre im dt d sp
  end.
Proof. destruct v; reflexivity. Qed.

Lemma map_item_eq g i :
  map_item g i =
  match i with
  | INone => INone
  | IValue v => IValue (map_value g v)
  | ITable t => ITable (map_tbl g t)
  | IAot ts sp => IAot (map (fun t => map_tbl g t) ts) sp
  end.
Proof. destruct i; reflexivity. Qed.

Lemma map_tbl_eq g t :
  map_tbl g t =
  match t with
  | Tbl items d im dt p sp =>
    Tbl (map (fun kv => match kv with (k, i) => (k, map_item g i) end) items) d im dt p sp
  end.
Proof. destruct t; reflexivity. Qed.

Lemma map_id_Forall {A} (f : A -> A) (l : list A) : Forall (fun x => f x = x) l -> map f l = l.
Proof. induction 1 as [|x l Hx _ IH]; [reflexivity|]. cbn [map]. rewrite Hx, IH. reflexivity. Qed.

(* map_scalars with nothing to rewrite is the identity *)
Lemma map_none_id :
  (forall v, map_value hook_default v = v) /\ (forall i, map_item hook_default i = i)
  /\ (forall t, map_tbl hook_default t = t).
Proof.
  apply tree_ind3.
  - reflexivity.
  - intros vals tr c d sp IH. rewrite map_value_eq. f_equal.
    apply map_id_Forall. eapply Forall_impl; [|exact IH]. intros it Hit.
    destruct it as [|e| |]; try reflexivity.
    rewrite map_item_eq in Hit. exact Hit.
  - intros items pre im dt d sp IH. rewrite map_value_eq. f_equal.
    apply map_id_Forall. eapply Forall_impl; [|exact IH].
    intros [k i] Hi. cbn [snd] in Hi. rewrite Hi. reflexivity.
  - reflexivity.
  - intros v IH. rewrite map_item_eq, IH. reflexivity.
  - intros t IH. rewrite map_item_eq, IH. reflexivity.
  - intros ts sp IH. rewrite map_item_eq. f_equal. apply map_id_Forall. exact IH.
  - intros items d im dt p sp IH. rewrite map_tbl_eq. f_equal.
    apply map_id_Forall. eapply Forall_impl; [|exact IH].
    intros [k i] Hi. cbn [snd] in Hi. rewrite Hi. reflexivity.
Qed.

(* C20_visit_mut *)
Theorem visit_mut_default : forall t,
  fst (visit_document_mut hook_default t) = expected_log t
  /\ snd (visit_document_mut hook_default t) = t.
Proof.
  intros t. rewrite mut_walk. cbn [fst snd]. split.
  - apply visit_log.
  - apply (proj2 (proj2 map_none_id)).
Qed.

(* C20_rewrite *)
Theorem rewrite_scalars : forall g t,
  snd (visit_document_mut g t) = map_scalars g t /\ fst (visit_document_mut g t) = visit_document t.
Proof. intros g t. rewrite mut_walk. split; reflexivity. Qed.

Theorem rewrite_integers : forall f t,
  snd (visit_document_mut (hook_integer f) t) = map_scalars (rw_integer f) t.
Proof. intros f t. rewrite mut_walk. reflexivity. Qed.

Theorem rewrite_strings : forall f t,
  snd (visit_document_mut (hook_string f) t) = map_scalars (rw_string f) t.
Proof. intros f t. rewrite mut_walk. reflexivity. Qed.

(* Exactly once: the listing runs through the positions of the tree, each once, in order *)

Fixpoint number (i : nat) (pss : list (list path)) : list path :=
  match pss with
  | [] => []
  | ps :: tl => map (cons i) ps ++ number (S i) tl
  end.

(* all positions of a rose tree, in preorder *)
Fixpoint positions (r : rose) : list path :=
  match r with
  | Rose _ cs => [] :: number 0 (map positions cs)
  end.

Definition label_at (r : rose) (p : path) : option node := optmap label (subtree r p).

Lemma number_labels n : forall cs pre,
  Forall (fun c => map (label_at c) (positions c) = map Some (preorder c)) cs ->
  map (label_at (Rose n (pre ++ cs))) (number (length pre) (map positions cs))
  = map Some (flat_map preorder cs).
Proof.
  induction cs as [|c cs IH]; intros pre HF; [reflexivity|].
  inversion HF as [|c0 cs0 Hc Hcs]; subst.
  cbn [map number flat_map]. rewrite (map_app (label_at _)), (map_app Some), map_map.
  f_equal.
  - rewrite <- Hc. apply map_ext. intros p. unfold label_at. cbn [subtree kids].
    rewrite nth_error_app2 by lia. rewrite Nat.sub_diag. reflexivity.
  - specialize (IH (pre ++ [c]) Hcs). rewrite app_length in IH. cbn [length] in IH.
    rewrite Nat.add_1_r in IH. rewrite <- app_assoc in IH. exact IH.
Qed.

Lemma positions_labels : forall r, map (label_at r) (positions r) = map Some (preorder r).
Proof.
  induction r as [n cs IH] using rose_ind2.
  cbn [positions map preorder]. f_equal. exact (number_labels n cs [] IH).
Qed.

Lemma number_In : forall pss k i ps q,
  nth_error pss i = Some ps -> In q ps -> In ((k + i) :: q) (number k pss).
Proof.
  induction pss as [|ps0 pss IH]; intros k i ps q Hn Hq; [destruct i; discriminate Hn|].
  cbn [number]. apply in_or_app. destruct i as [|i]; cbn [nth_error] in Hn.
  - injection Hn as Hn. subst ps0. left. rewrite Nat.add_0_r. apply in_map. exact Hq.
  - right. replace (k + S i) with (S k + i) by lia. eapply IH; eassumption.
Qed.

Lemma positions_complete : forall r p r', subtree r p = Some r' -> In p (positions r).
Proof.
  induction r as [n cs IH] using rose_ind2. intros p; destruct p as [|i q]; intros r' Hs.
  - cbn [positions]. left. reflexivity.
  - cbn [positions]. right. cbn [subtree kids] in Hs.
    destruct (nth_error cs i) as [c|] eqn:Hn; [|discriminate Hs].
    change (i :: q) with ((0 + i) :: q). apply number_In with (ps := positions c).
    + rewrite nth_error_map, Hn. reflexivity.
    + rewrite Forall_forall in IH. apply (IH c (nth_error_In _ _ Hn) q r'). exact Hs.
Qed.

Lemma positions_sound : forall r p, In p (positions r) -> exists n, label_at r p = Some n.
Proof.
  intros r p Hin. apply (in_map (label_at r)) in Hin. rewrite positions_labels in Hin.
  apply in_map_iff in Hin as [n [Hn _]]. exists n. symmetry. exact Hn.
Qed.

Lemma path_lt_irrefl p : ~ path_lt p p.
Proof.
  induction p as [|i p IH]; cbn [path_lt]; [tauto|].
  intros [H|[_ H]]; [lia|auto].
Qed.

Lemma number_head : forall pss k p, In p (number k pss) -> exists j q, p = j :: q /\ k <= j.
Proof.
  induction pss as [|ps pss IH]; intros k p Hin; [contradiction|].
  cbn [number] in Hin. apply in_app_or in Hin as [Hin|Hin].
  - apply in_map_iff in Hin as [q [Hq _]]. exists k, q. split; [symmetry; exact Hq|lia].
  - apply IH in Hin as [j [q [Hp Hj]]]. exists j, q. split; [exact Hp|lia].
Qed.

Lemma sorted_app {A} (R : A -> A -> Prop) (l1 l2 : list A) :
  StronglySorted R l1 -> StronglySorted R l2 ->
  (forall a b, In a l1 -> In b l2 -> R a b) -> StronglySorted R (l1 ++ l2).
Proof.
  induction 1 as [|a l1 Hs IH Ha]; intros H2 Hc; [exact H2|].
  cbn [app]. constructor.
  - apply IH; [exact H2|]. intros x y Hx Hy. apply Hc; [right; exact Hx|exact Hy].
  - apply Forall_app. split; [exact Ha|].
    apply Forall_forall. intros y Hy. apply Hc; [left; reflexivity|exact Hy].
Qed.

Lemma sorted_map_cons i ps :
  StronglySorted path_lt ps -> StronglySorted path_lt (map (cons i) ps).
Proof.
  induction 1 as [|p ps Hs IH Hp]; cbn [map]; constructor; [exact IH|].
  apply Forall_forall. intros q Hq. apply in_map_iff in Hq as [q' [Hq' Hin]]. subst q.
  cbn [path_lt]. right. split; [reflexivity|].
  rewrite Forall_forall in Hp. apply Hp. exact Hin.
Qed.

Lemma number_sorted : forall pss k,
  Forall (StronglySorted path_lt) pss -> StronglySorted path_lt (number k pss).
Proof.
  induction pss as [|ps pss IH]; intros k HF; [constructor|].
  inversion HF as [|x l Hps Hpss]; subst. cbn [number].
  apply sorted_app.
  - apply sorted_map_cons. exact Hps.
  - apply IH. exact Hpss.
  - intros a b Ha Hb. apply in_map_iff in Ha as [q [Hq _]]. subst a.
    apply number_head in Hb as [j [q' [Hb Hj]]]. subst b.
    cbn [path_lt]. left. lia.
Qed.

Lemma positions_sorted : forall r, StronglySorted path_lt (positions r).
Proof.
  induction r as [n cs IH] using rose_ind2. cbn [positions]. constructor.
  - apply number_sorted. apply Forall_map. exact IH.
  - apply Forall_forall. intros p Hp. apply number_head in Hp as [j [q [Hp _]]]. subst p.
    exact I.
Qed.

Lemma sorted_NoDup (l : list path) : StronglySorted path_lt l -> NoDup l.
Proof.
  induction 1 as [|p l Hs IH Hp]; constructor; [|exact IH].
  intro Hin. rewrite Forall_forall in Hp. apply (path_lt_irrefl p). apply Hp. exact Hin.
Qed.

(* the listing `nodes t` runs through the positions of the document: every position occurs,
   none twice, in document order *)
Lemma nodes_positions : forall t,
  exists ps : list path,
    StronglySorted path_lt ps /\ NoDup ps
    /\ (forall p, In p ps <-> node_at t p <> None)
    /\ map (node_at t) ps = map Some (nodes t).
Proof.
  intros t. exists (positions (rose_tbl t)).
  pose proof (positions_sorted (rose_tbl t)) as Hs.
  split; [exact Hs|]. split; [apply sorted_NoDup; exact Hs|]. split.
  - intros p. unfold node_at. fold (label_at (rose_tbl t) p). split.
    + intros Hin. apply positions_sound in Hin as [n Hn]. rewrite Hn. discriminate.
    + intros Hne. unfold label_at in Hne.
      destruct (subtree (rose_tbl t) p) as [r'|] eqn:Hsub; [|exfalso; apply Hne; reflexivity].
      eapply positions_complete. exact Hsub.
  - unfold nodes. rewrite <- positions_labels. apply map_ext. intros p. reflexivity.
Qed.

(* C20_once *)
Theorem visit_once : forall t,
  exists ps : list path,
    StronglySorted path_lt ps /\ NoDup ps
    /\ (forall p, In p ps <-> node_at t p <> None)
    /\ map Some (filter is_node_hook (visit_document t))
       = map (fun p => optmap node_hook (node_at t p)) ps.
Proof.
  intros t. destruct (nodes_positions t) as [ps [Hs [Hnd [Hall Hmap]]]].
  exists ps. repeat split; try assumption; try (apply Hall).
  rewrite (visit_hooks t).
  rewrite <- (map_map (node_at t) (optmap node_hook)), Hmap, !map_map. reflexivity.
Qed.

(* Rewriting keeps the shape: same nodes at the same positions, scalars rewritten *)

Fixpoint rose_map (f : node -> node) (r : rose) : rose :=
  match r with
  | Rose n cs => Rose (f n) (map (rose_map f) cs)
  end.

Lemma preorder_rose_map f : forall r, preorder (rose_map f r) = map f (preorder r).
Proof.
  induction r as [n cs IH] using rose_ind2. cbn [rose_map preorder map]. f_equal.
  rewrite flat_map_map, map_flat_map. apply flat_map_Forall_ext. exact IH.
Qed.

Section Shape.
  Variable g : scalar -> option scalar.
  Let h := rose_map (map_node g).

  Lemma entry_shape (k : key) (i : item) :
    rose_item (map_item g i) = map h (rose_item i) ->
    match map_item g i with
    | INone => []
    | _ => [Rose (NKv k (map_item g i)) (rose_item (map_item g i))]
    end
    = map h (match i with INone => [] | _ => [Rose (NKv k i) (rose_item i)] end).
  Proof.
    intros IH. rewrite IH. destruct i; reflexivity.
  Qed.

  Lemma shape_ok :
    (forall v, rose_value (map_value g v) = h (rose_value v))
    /\ (forall i, rose_item (map_item g i) = map h (rose_item i))
    /\ (forall t, rose_tbl (map_tbl g t) = h (rose_tbl t)).
  Proof.
    apply tree_ind3.
    - intros s r d. rewrite map_value_eq. destruct (g s) eqn:E.
      + cbn [rose_value h rose_map map map_node]. rewrite map_value_eq, E. reflexivity.
      + cbn [rose_value h rose_map map map_node]. rewrite map_value_eq, E. reflexivity.
    - intros vals tr c d sp IH.
      rewrite map_value_eq. cbn [rose_value]. unfold h at 1. cbn [rose_map map_node].
      rewrite (map_value_eq g (VArray vals tr c d sp)). f_equal.
      rewrite flat_map_map. fold h. rewrite map_flat_map. apply flat_map_Forall_ext.
      eapply Forall_impl; [|exact IH]. intros it Hit.
      destruct it as [|e| |]; try reflexivity. exact Hit.
    - intros items pre im dt d sp IH.
      rewrite map_value_eq. cbn [rose_value]. unfold h at 1. cbn [rose_map map_node].
      rewrite (map_value_eq g (VInline items pre im dt d sp)). f_equal.
      rewrite flat_map_map. fold h. rewrite map_flat_map. apply flat_map_Forall_ext.
      eapply Forall_impl; [|exact IH]. intros [k i] Hi. cbn [snd] in Hi.
      apply entry_shape. exact Hi.
    - reflexivity.
    - intros v IH. rewrite map_item_eq. cbn [rose_item map]. rewrite IH. reflexivity.
    - intros t IH. rewrite map_item_eq. cbn [rose_item map]. rewrite IH. reflexivity.
    - intros ts sp IH. rewrite map_item_eq. cbn [rose_item map]. unfold h at 1. cbn [rose_map map_node].
      do 2 f_equal. rewrite !map_map. apply map_Forall_ext. exact IH.
    - intros items d im dt p sp IH.
      rewrite map_tbl_eq. cbn [rose_tbl]. unfold h at 1. cbn [rose_map map_node].
      rewrite (map_tbl_eq g (Tbl items d im dt p sp)). f_equal.
      rewrite flat_map_map. fold h. rewrite map_flat_map. apply flat_map_Forall_ext.
      eapply Forall_impl; [|exact IH]. intros [k i] Hi. cbn [snd] in Hi.
      apply entry_shape. exact Hi.
  Qed.

  (* the rewritten document has the same nodes in the same order, each the image of the old one *)
  Theorem rewrite_nodes : forall t, nodes (map_scalars g t) = map (map_node g) (nodes t).
  Proof.
    intros t. unfold nodes, map_scalars. rewrite (proj2 (proj2 shape_ok) t). unfold h.
    apply preorder_rose_map.
  Qed.

  (* all scalars g applies to are replaced, the others stay, none appears or disappears *)
  Theorem rewrite_scalar_list : forall t,
    scalars (map_scalars g t) = map (fun s => match g s with Some s' => s' | None => s end) (scalars t).
  Proof.
    intros t. unfold scalars. rewrite rewrite_nodes, flat_map_map, map_flat_map.
    apply flat_map_Forall_ext. apply Forall_forall. intros n _.
    destruct n as [| | |v]; try reflexivity.
    cbn [map_node]. rewrite map_value_eq. destruct v as [s r d| |]; try reflexivity.
    cbn [map]. destruct (g s); reflexivity.
  Qed.
End Shape.
