(* Proofs/SerdeRTBase.v — list / table / lookup facts used by the C07 proofs. *)
From TV Require Import Base.Prelude Spec.SerdeData Model.Ser Model.De.
From Coq Require Import Permutation.
From TV Require Export Base.BytesFacts.

(* ---- results ---- *)
Lemma rbind_ok {A B} (r : result A) (f : A -> result B) b :
  rbind r f = Ok b -> exists a, r = Ok a /\ f a = Ok b.
Proof. destruct r; simpl; [eauto|discriminate]. Qed.
Lemma rmap_ok {A B} (f : A -> B) (r : result A) b :
  rmap f r = Ok b -> exists a, r = Ok a /\ b = f a.
Proof. destruct r; simpl; [intro H; injection H as <-; eauto|discriminate]. Qed.
Lemma rbind_err {A B} (r : result A) (f : A -> result B) e :
  rbind r f = Err e -> r = Err e \/ exists a, r = Ok a /\ f a = Err e.
Proof. destruct r; simpl; [eauto|intro H; left; congruence]. Qed.
Lemma rmap_err {A B} (f : A -> B) (r : result A) e : rmap f r = Err e -> r = Err e.
Proof. destruct r; simpl; [discriminate|congruence]. Qed.

(* ---- Forall3 ---- *)
Inductive Forall3 {A B C : Type} (R : A -> B -> C -> Prop) : list A -> list B -> list C -> Prop :=
| Forall3_nil : Forall3 R [] [] []
| Forall3_cons a b c la lb lc : R a b c -> Forall3 R la lb lc -> Forall3 R (a :: la) (b :: lb) (c :: lc).

Lemma Forall3_impl {A B C} (R R' : A -> B -> C -> Prop) la lb lc :
  (forall a b c, In a la -> R a b c -> R' a b c) -> Forall3 R la lb lc -> Forall3 R' la lb lc.
Proof.
  intros H F. induction F; constructor.
  - apply H; [left; reflexivity|assumption].
  - apply IHF. intros; apply H; [right|]; assumption.
Qed.

Lemma Forall3_length {A B C} (R : A -> B -> C -> Prop) la lb lc :
  Forall3 R la lb lc -> length la = length lb /\ length lc = length la.
Proof. induction 1; simpl; [auto|]. destruct IHForall3. split; congruence. Qed.

Lemma mapM_ok {A C} (f : A -> result C) l cs :
  mapM f l = Ok cs -> Forall2 (fun a c => f a = Ok c) l cs.
Proof.
  revert cs; induction l as [|a l IH]; simpl; intros cs H.
  - injection H as <-. constructor.
  - apply rbind_ok in H as (c & Hc & H). apply rbind_ok in H as (cs' & Hcs & H). injection H as <-.
    constructor; [exact Hc | apply IH; exact Hcs].
Qed.

Lemma zipM_ok {A B C} (g : A -> B -> result C) l1 l2 cs :
  zipM g l1 l2 = Ok cs -> Forall3 (fun a b c => g a b = Ok c) l1 l2 cs.
Proof.
  revert l2 cs; induction l1 as [|a l1 IH]; intros [|b l2] cs H; simpl in H; try discriminate.
  - injection H as <-. constructor.
  - apply rbind_ok in H as (c & Hc & H). apply rbind_ok in H as (cs' & Hcs & H). injection H as <-.
    constructor; [exact Hc | apply IH; exact Hcs].
Qed.

Lemma mapM_of_Forall2 {A C} (f : A -> result C) l cs :
  Forall2 (fun a c => f a = Ok c) l cs -> mapM f l = Ok cs.
Proof. induction 1; simpl; [reflexivity|]. rewrite H, IHForall2. reflexivity. Qed.

Lemma zipM_of_Forall3 {A B C} (g : A -> B -> result C) l1 l2 cs :
  Forall3 (fun a b c => g a b = Ok c) l1 l2 cs -> zipM g l1 l2 = Ok cs.
Proof. induction 1; simpl; [reflexivity|]. rewrite H, IHForall3. reflexivity. Qed.

(* the first failing element of a mapM / zipM *)
Lemma mapM_err {A C} (f : A -> result C) l e :
  mapM f l = Err e -> exists a, In a l /\ f a = Err e.
Proof.
  induction l as [|a l IH]; simpl; intro H; [discriminate|].
  apply rbind_err in H as [H|(c & Hc & H)]; [exists a; auto|].
  apply rbind_err in H as [H|(cs & Hcs & H)]; [|discriminate].
  destruct (IH H) as (a' & Hin & Ha'). exists a'; auto.
Qed.

Lemma zipM_err {A B C} (g : A -> B -> result C) l1 l2 e :
  length l1 = length l2 -> zipM g l1 l2 = Err e ->
  exists i a b, nth_error l1 i = Some a /\ nth_error l2 i = Some b /\ g a b = Err e.
Proof.
  revert l2; induction l1 as [|a l1 IH]; intros [|b l2] Hl H; simpl in *; try discriminate.
  apply rbind_err in H as [H|(c & Hc & H)]; [exists 0%nat, a, b; auto|].
  apply rbind_err in H as [H|(cs & Hcs & H)]; [|discriminate].
  destruct (IH l2 ltac:(congruence) H) as (i & a' & b' & H1 & H2 & H3). exists (S i), a', b'; auto.
Qed.

(* an element on which a mapM / zipM fails *)
Lemma mapM_fails {A C} (f : A -> result C) l a e : In a l -> f a = Err e -> exists e', mapM f l = Err e'.
Proof.
  induction l as [|x l IH]; intros Hin Ha; [contradiction|]. simpl.
  destruct Hin as [->|Hin].
  - rewrite Ha. simpl. eauto.
  - destruct (f x); simpl; [|eauto]. destruct (IH Hin Ha) as (e' & ->). simpl. eauto.
Qed.

Lemma zipM_fails {A B C} (g : A -> B -> result C) l1 : forall l2 i a b e,
  nth_error l1 i = Some a -> nth_error l2 i = Some b -> g a b = Err e -> exists e', zipM g l1 l2 = Err e'.
Proof.
  induction l1 as [|x l1 IH]; intros [|y l2] [|i] a b e H1 H2 Hg; simpl in *; try discriminate.
  - injection H1 as ->. injection H2 as ->. rewrite Hg. simpl. eauto.
  - destruct (g x y); simpl; [|eauto]. destruct (IH l2 i a b e H1 H2 Hg) as (e' & ->). simpl. eauto.
Qed.

(* ---- all2b, Forall2 ---- *)
Lemma all2b_Forall2 {A B} (f : A -> B -> bool) l1 l2 :
  all2b f l1 l2 = true <-> Forall2 (fun a b => f a b = true) l1 l2.
Proof.
  revert l2; induction l1 as [|a l1 IH]; intros [|b l2]; simpl; split; intro H; try discriminate; try constructor;
    try (inversion H; fail).
  - apply andb_true_iff in H as [H1 H2]. exact H1.
  - apply andb_true_iff in H as [H1 H2]. apply IH; exact H2.
  - inversion H; subst. apply andb_true_iff; split; [assumption|apply IH; assumption].
Qed.

Lemma Forall2_In_l {A B} (R : A -> B -> Prop) l1 l2 a :
  Forall2 R l1 l2 -> In a l1 -> exists b, In b l2 /\ R a b.
Proof.
  induction 1 as [|x y l1 l2 Hxy _ IH]; intro Hin; [contradiction|]. destruct Hin as [->|Hin].
  - exists y. split; [left; reflexivity|exact Hxy].
  - destruct (IH Hin) as (b & Hb & Hr). exists b. split; [right; exact Hb|exact Hr].
Qed.

Lemma Forall2_perm_r {A B} (R : A -> B -> Prop) l2 l2' : Permutation l2 l2' ->
  forall l1, Forall2 R l1 l2 -> exists l1', Permutation l1 l1' /\ Forall2 R l1' l2'.
Proof.
  induction 1 as [|x l l' _ IH|x y l|l l' l'' _ IH1 _ IH2]; intros l1 F.
  - inversion F; subst. exists []. split; constructor.
  - inversion F as [|a ? l1t ? Ha Ft]; subst. destruct (IH l1t Ft) as (l1' & P & F'). exists (a :: l1'). split; constructor; assumption.
  - inversion F as [|a ? l1t ? Ha Ft]; subst. inversion Ft as [|b ? l1u ? Hb Fu]; subst.
    exists (b :: a :: l1u). split; [apply perm_swap|repeat constructor; assumption].
  - destruct (IH1 l1 F) as (l1' & P1 & F1). destruct (IH2 l1' F1) as (l1'' & P2 & F2).
    exists l1''. split; [eapply Permutation_trans; eassumption|exact F2].
Qed.

Lemma Forall2_flip {A B} (R : A -> B -> Prop) l1 l2 : Forall2 R l1 l2 -> Forall2 (fun b a => R a b) l2 l1.
Proof. induction 1; constructor; assumption. Qed.

Lemma Forall2_perm_l {A B} (R : A -> B -> Prop) l1 l1' : Permutation l1 l1' ->
  forall l2, Forall2 R l1 l2 -> exists l2', Permutation l2 l2' /\ Forall2 R l1' l2'.
Proof.
  intros P l2 F. apply Forall2_flip in F. destruct (Forall2_perm_r _ _ _ P l2 F) as (l2' & P' & F').
  exists l2'. split; [exact P'|]. apply Forall2_flip in F'. exact F'.
Qed.

Lemma Forall2_compose {A B C} (R1 : A -> B -> Prop) (R2 : B -> C -> Prop) (R3 : A -> C -> Prop) l1 l2 l3 :
  (forall a b c, R1 a b -> R2 b c -> R3 a c) -> Forall2 R1 l1 l2 -> Forall2 R2 l2 l3 -> Forall2 R3 l1 l3.
Proof.
  intros H F1. revert l3. induction F1; intros l3 F2; inversion F2; subst; constructor; eauto.
Qed.

Lemma Forall2_length' {A B} (R : A -> B -> Prop) l1 l2 : Forall2 R l1 l2 -> length l1 = length l2.
Proof. induction 1; simpl; congruence. Qed.

Lemma Forall2_refl {A} (R : A -> A -> Prop) l : (forall a, R a a) -> Forall2 R l l.
Proof. intro H. induction l; constructor; auto. Qed.

Lemma Forall2_nth {A B} (R : A -> B -> Prop) l1 l2 i a b :
  Forall2 R l1 l2 -> nth_error l1 i = Some a -> nth_error l2 i = Some b -> R a b.
Proof.
  intro F. revert i. induction F as [|x y l1 l2 Hxy _ IH]; intros [|i] Ha Hb; simpl in *; try discriminate.
  - injection Ha as <-. injection Hb as <-. exact Hxy.
  - eapply IH; eassumption.
Qed.

(* element-wise facts put together: one known of every left element, one of every pair, one given by position *)
Lemma Forall2_combine {A B} (P : A -> Prop) (R1 R2 Q : A -> B -> Prop) l1 l2 :
  (forall a b, P a -> R1 a b -> R2 a b -> Q a b) ->
  Forall P l1 -> Forall2 R1 l1 l2 ->
  (forall i a b, nth_error l1 i = Some a -> nth_error l2 i = Some b -> R2 a b) -> Forall2 Q l1 l2.
Proof.
  intros HQ HP F. induction F as [|a b l1 l2 Hab _ IH]; intro H2; [constructor|].
  inversion HP; subst. constructor.
  - apply HQ; [assumption|exact Hab|apply (H2 0%nat); reflexivity].
  - apply IH; [assumption|]. intros i. apply (H2 (S i)).
Qed.

Lemma all2b_nth {A B} (f : A -> B -> bool) l1 l2 i a b :
  all2b f l1 l2 = true -> nth_error l1 i = Some a -> nth_error l2 i = Some b -> f a b = true.
Proof. intro H. apply all2b_Forall2 in H. intros H1 H2. apply (Forall2_nth _ _ _ _ _ _ H H1 H2). Qed.

(* ---- byte-string lists ---- *)
Lemma mem_bytes_In k l : mem_bytes k l = true <-> In k l.
Proof.
  induction l as [|x l IH]; simpl; [split; [discriminate|tauto]|].
  rewrite orb_true_iff, bytes_eqb_eq, IH. split; intros [H|H]; auto.
Qed.
Lemma mem_bytes_false k l : mem_bytes k l = false <-> ~ In k l.
Proof. rewrite <- mem_bytes_In. destruct (mem_bytes k l); split; congruence. Qed.

Lemma nodup_bytes_NoDup l : nodup_bytes l = true <-> NoDup l.
Proof.
  induction l as [|x l IH]; simpl; [split; [constructor|reflexivity]|].
  rewrite andb_true_iff, negb_true_iff, mem_bytes_false, IH. split.
  - intros [H1 H2]; constructor; assumption.
  - intro H; inversion H; auto.
Qed.

Lemma bytes_eqb_sym a b : bytes_eqb a b = bytes_eqb b a.
Proof. apply BytesFacts.bytes_eqb_sym. Qed.

(* ---- pick / find_name ---- *)
Lemma pick_nth {A R} (f : A -> R) d l i a : nth_error l i = Some a -> pick f d l i = f a.
Proof.
  revert i; induction l as [|x l IH]; intros [|i] H; simpl in *; try discriminate.
  - injection H as ->. reflexivity.
  - apply IH; exact H.
Qed.
Lemma pick_none {A R} (f : A -> R) d l i : nth_error l i = None -> pick f d l i = d.
Proof.
  revert i; induction l as [|x l IH]; intros [|i] H; simpl in *; try discriminate; try reflexivity.
  apply IH; exact H.
Qed.
Lemma pick_cases {A R} (f : A -> R) d l i :
  (exists a, nth_error l i = Some a /\ pick f d l i = f a) \/ (nth_error l i = None /\ pick f d l i = d).
Proof.
  destruct (nth_error l i) as [a|] eqn:E; [left; exists a; split; [reflexivity|apply pick_nth; exact E]|].
  right; split; [reflexivity|apply pick_none; exact E].
Qed.

Lemma find_name_nth {A R} (f : nat -> A -> R) d l : forall i j n a,
  NoDup (map fst l) -> nth_error l i = Some (n, a) -> find_name f d n l j = f (j + i)%nat a.
Proof.
  induction l as [|[n' a'] l IH]; intros [|i] j n a Hnd H; simpl in *; try discriminate.
  - injection H as -> ->. rewrite bytes_eqb_refl. f_equal. lia.
  - inversion Hnd as [|? ? Hnot Hnd']; subst.
    assert (Hne : bytes_eqb n' n = false).
    { apply bytes_eqb_neq. intro; subst. apply Hnot. apply nth_error_In in H. apply (in_map fst) in H. exact H. }
    rewrite Hne. rewrite (IH i (S j) n a Hnd' H). f_equal. lia.
Qed.

(* ---- tables ---- *)
Lemma tab_insert_fresh k x es : ~ In k (map fst es) -> tab_insert k x es = es ++ [(k, x)].
Proof.
  induction es as [|[k' x'] es IH]; simpl; intro H; [reflexivity|].
  assert (bytes_eqb k' k = false) as -> by (apply bytes_eqb_neq; intro; subst; apply H; left; reflexivity).
  rewrite IH; [reflexivity|]. intro; apply H; right; assumption.
Qed.

Lemma tab_of_pairs_nodup_gen ps : forall acc,
  NoDup (map fst acc ++ map fst ps) ->
  fold_left (fun acc p => tab_insert (fst p) (snd p) acc) ps acc = acc ++ ps.
Proof.
  induction ps as [|[k x] ps IH]; intros acc H; simpl; [rewrite app_nil_r; reflexivity|].
  simpl in H. rewrite tab_insert_fresh.
  - rewrite IH; [rewrite <- app_assoc; reflexivity|].
    rewrite map_app; simpl. rewrite <- app_assoc. exact H.
  - apply NoDup_remove_2 in H. intro Hin. apply H. apply in_or_app; left; exact Hin.
Qed.

Lemma tab_of_pairs_nodup ps : NoDup (map fst ps) -> tab_of_pairs ps = ps.
Proof. intro H. unfold tab_of_pairs. rewrite tab_of_pairs_nodup_gen; [reflexivity|exact H]. Qed.

Lemma tab_get_notin k es : ~ In k (map fst es) -> tab_get k es = None.
Proof.
  induction es as [|[k' x] es IH]; simpl; intro H; [reflexivity|].
  assert (bytes_eqb k' k = false) as -> by (apply bytes_eqb_neq; intro; subst; apply H; left; reflexivity).
  apply IH. intro; apply H; right; assumption.
Qed.

Lemma tab_get_In k x es : NoDup (map fst es) -> In (k, x) es -> tab_get k es = Some x.
Proof.
  induction es as [|[k' x'] es IH]; simpl; intros Hnd Hin; [contradiction|]. destruct Hin as [H|H].
  - injection H as -> ->. rewrite bytes_eqb_refl. reflexivity.
  - inversion Hnd as [|? ? Hnot Hnd']; subst.
    assert (bytes_eqb k' k = false) as ->.
    { apply bytes_eqb_neq; intro; subst. apply Hnot. apply (in_map fst) in H. exact H. }
    apply IH; assumption.
Qed.

Lemma tab_get_Some_In k x es : tab_get k es = Some x -> In (k, x) es.
Proof.
  induction es as [|[k' y] es IH]; simpl; intro G; [discriminate|].
  destruct (bytes_eqb k' k) eqn:E; [apply bytes_eqb_eq in E; subst; injection G as ->; left; reflexivity|].
  right. apply IH, G.
Qed.
Lemma tab_get_None_notin k es : tab_get k es = None -> ~ In k (map fst es).
Proof.
  induction es as [|[k' y] es IH]; simpl; intros G Hin; [contradiction|].
  destruct (bytes_eqb k' k) eqn:E; [discriminate|]. destruct Hin as [->|Hin]; [rewrite bytes_eqb_refl in E; discriminate|].
  apply (IH G Hin).
Qed.

(* ---- somes ---- *)
Lemma somes_In {A} (a : A) l : In a (somes l) <-> In (Some a) l.
Proof.
  induction l as [|[x|] l IH]; simpl; [tauto| |].
  - rewrite IH. split; intros [H|H]; auto; [left; congruence|left; congruence].
  - rewrite IH. split; [auto|intros [H|H]; [discriminate|assumption]].
Qed.

Lemma somes_map_Some {A} (l : list A) : somes (map Some l) = l.
Proof. induction l; simpl; congruence. Qed.

(* ---- roots ---- *)
Lemma root_table_inv x y : root_table x = Ok y -> exists es, y = VTab es /\ x = y.
Proof. destruct x; simpl; intro H; try discriminate. injection H as <-. eauto. Qed.

Lemma edit_root_is_table t v out : ser_edit_root t v = Ok out -> exists es, out = VTab es /\ ser_value t v = Ok out.
Proof.
  unfold ser_edit_root. destruct (ser_value t v) as [x|e]; simpl; [|discriminate].
  intro H. apply root_table_inv in H as (es & -> & ->). eauto.
Qed.

(* ---- typing, contexts, floats ---- *)
Lemma htv_unit p : has_type_variant_b VUnit p = true -> p = SUnit.
Proof. destruct p; simpl; try discriminate. reflexivity. Qed.

Lemma none_typed t : has_type_b t SNone = true -> is_opt t = true.
Proof. destruct t; simpl; try discriminate; try (destruct w; discriminate). reflexivity. Qed.

Lemma private_not_dt n : private_name n = false -> bytes_eqb n DT_NAME = false.
Proof. unfold private_name. intro H. apply orb_false_iff in H as [H _]. exact H. Qed.

Lemma unsupported_ctx t v e : unsupported CElem t v e -> v <> SNone -> unsupported CField t v e.
Proof.
  intros H Hn. inversion H; subst; try (econstructor; eassumption).
  contradiction.
Qed.

Lemma f64_eq_trans a b c : f64_eq a b -> f64_eq b c -> f64_eq a c.
Proof.
  intros [->|[H1 H2]] [->|[H3 H4]]; try (left; reflexivity); right; split; assumption.
Qed.

(* ---- MapValueSerializer ---- *)
Lemma ser_map_value_cases ser t v :
  (exists t', t = TOpt t' /\ v = SNone /\ ser_map_value ser t v = Ok None)
  \/ ((is_opt t = true -> v <> SNone) /\ ser_map_value ser t v = rmap Some (ser t v)).
Proof.
  destruct t; try (right; split; [discriminate|reflexivity]).
  destruct v; try (right; split; [discriminate|reflexivity]).
  left. exists t. auto.
Qed.

Lemma ser_map_value_not_none ser t v : v <> SNone -> ser_map_value ser t v = rmap Some (ser t v).
Proof. intro H. destruct t; try reflexivity. destruct v; try reflexivity. contradiction. Qed.
