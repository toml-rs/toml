(* Proofs/WFOrderState.v — sections in Display's order, part 2: what descend_path, finalize_table, start_table and
   start_array_table (Model/Document.v) do to the positioned sections `Bb` of the tree, as multisets.  Built on the
   relational view of descend_path (Proofs/DocumentOps.v `dctx_rel`, `wta_dctx`; Proofs/PrintBackDAll.v unique keys `uk2`), with the own
   STATEMENTS of the sections as payload instead of their text. *)
From TV Require Import Base.Prelude Spec.WF.
From TV Require Import Model.Tree Model.Parse Model.Document.
From TV Require Import Proofs.DefsEquivBase Proofs.PrintBackSecs Proofs.PrintBackDAll.
From TV Require Import Proofs.WFSemDoc Proofs.WFTree Proofs.WFPrintDoc Proofs.WFOrderBase.
From TV Require Import Proofs.KvFacts.
From TV Require Import Proofs.DocumentOps.
Require Import Lia NArith Sorting.Sorted Sorting.Permutation.

(* ---- the lines of a table ------------------------------------------------------------------------------------------------ *)
Definition tfl (p : list key) (m : list (key * item)) : list (list key * value) := flat_map (fun kv => tflat_item p (fst kv) (snd kv)) m.
Lemma tflat_tfl p t : tflat p t = tfl p (t_items t).
Proof. apply tflat_eq. Qed.
Lemma tfl_app p a b : tfl p (a ++ b) = tfl p a ++ tfl p b.
Proof. apply flat_map_app. Qed.
Lemma tfl_set p m k k0 it it' : kv_get m k = Some (k0, it) -> tflat_item p k0 it' = tflat_item p k0 it -> tfl p (kv_set m k it') = tfl p m.
Proof.
  intros G E. destruct (kv_get_split m k k0 it G) as (A & B & -> & _ & Hs & _). rewrite Hs, !tfl_app. unfold tfl at 2 4. cbn [flat_map fst snd]. rewrite E. reflexivity.
Qed.
Lemma tfl_push p m k it : tflat_item p k it = [] -> tfl p (kv_push m k it) = tfl p m.
Proof. intro E. unfold kv_push. rewrite tfl_app. unfold tfl at 2. cbn [flat_map fst snd]. rewrite E. cbn [app]. rewrite ?app_nil_r. reflexivity. Qed.
Lemma tfl_remove p m k k0 it : kv_get m k = Some (k0, it) -> tflat_item p k0 it = [] -> tfl p (kv_remove m k) = tfl p m.
Proof.
  intros G E. destruct (kv_get_split m k k0 it G) as (A & B & -> & _ & _ & Hr). rewrite Hr, !tfl_app. unfold tfl at 4. cbn [flat_map fst snd]. rewrite E. reflexivity.
Qed.

(* only the sub-tables change: flags, position and lines stay *)
Definition lframe (t t' : tbl) : Prop :=
  t_implicit t' = t_implicit t /\ t_dotted t' = t_dotted t /\ t_position t' = t_position t /\ (forall p, tflat p t' = tflat p t).
Lemma lframe_refl t : lframe t t.
Proof. repeat split. Qed.
Lemma lframe_trans a b c : lframe a b -> lframe b c -> lframe a c.
Proof. intros (A1 & A2 & A3 & A4) (B1 & B2 & B3 & B4). split; [congruence|]. split; [congruence|]. split; [congruence|]. intro p. rewrite B4. apply A4. Qed.
Lemma lframe_set_items t m : (forall p, tfl p m = tfl p (t_items t)) -> lframe t (t_set_items t m).
Proof. intro H. destruct t. repeat split. intro p. rewrite !tflat_tfl. apply H. Qed.

Lemma own_b_lframe t t' P a : lframe t t' -> own_b t' P a = own_b t P a.
Proof.
  intros (H1 & _ & _ & H4). unfold own_b, no_lines, line_stmts. rewrite <- !tflat_lines, (H4 []), H1. reflexivity.
Qed.
Lemma own_e_lframe t t' P a : lframe t t' -> own_e t' P a = own_e t P a.
Proof. intros H. pose proof H as (_ & H2 & H3 & _). unfold own_e. rewrite H2, H3, (own_b_lframe _ _ P a H). reflexivity. Qed.

(* ---- descend_path for headers ------------------------------------------------------------------------------------------ *)
Lemma dctx_lframe p r r' par par' : dctx_rel false p r r' par par' -> lframe par par' -> lframe r r'.
Proof.
  induction 1 as [t t'|t k p sub par par' G Hc IH|t k p k0 sub sub' par par' G Hc IH|t k p k0 ts sp last rinit last' par par' G Er Hc IH]; intro Hf.
  - exact Hf.
  - apply lframe_set_items. intro q. apply tfl_push. cbn [tflat_item]. destruct (IH Hf) as (_ & Hd & _). rewrite Hd. reflexivity.
  - apply lframe_set_items. intro q. apply (tfl_set q _ _ _ _ _ G). cbn [tflat_item]. destruct (IH Hf) as (_ & Hd & _ & Ht). rewrite Hd, Ht. reflexivity.
  - apply lframe_set_items. intro q. apply (tfl_set q _ _ _ _ _ G). reflexivity.
Qed.

Lemma BbI_set m k k0 it it' P D1 D2 : kv_get m k = Some (k0, it) ->
  Permutation (Bit P (k0, it') ++ D1) (Bit P (k0, it) ++ D2) -> Permutation (BbI (kv_set m k it') P ++ D1) (BbI m P ++ D2).
Proof.
  intros Hg Hp. destruct (kv_get_split m k k0 it Hg) as (A & B & -> & _ & Hs & _). rewrite Hs, !BbI_app.
  change (BbI ((k0, it') :: B) P) with (Bit P (k0, it') ++ BbI B P). change (BbI ((k0, it) :: B) P) with (Bit P (k0, it) ++ BbI B P).
  rewrite <- !app_assoc. apply Permutation_app_head.
  transitivity (BbI B P ++ Bit P (k0, it') ++ D1); [rewrite !app_assoc; apply Permutation_app_tail, Permutation_app_comm|].
  transitivity (BbI B P ++ Bit P (k0, it) ++ D2); [apply Permutation_app_head, Hp|].
  rewrite !app_assoc. apply Permutation_app_tail, Permutation_app_comm.
Qed.

Lemma keys_cons k p : keys (k :: p) = k_key k :: keys p.
Proof. reflexivity. Qed.

Lemma dctx_permB p r r' par par' : dctx_rel false p r r' par par' -> lframe par par' ->
  forall P D1 D2,
    Permutation (BbI (t_items par') (P ++ keys p) ++ D1) (BbI (t_items par) (P ++ keys p) ++ D2) ->
    Permutation (BbI (t_items r') P ++ D1) (BbI (t_items r) P ++ D2).
Proof.
  induction 1 as [t t'|t k p sub par par' G Hc IH|t k p k0 sub sub' par par' G Hc IH|t k p k0 ts sp last rinit last' par par' G Er Hc IH]; intros Hf P D1 D2 Hp.
  - cbn [keys map] in Hp. rewrite app_nil_r in Hp. exact Hp.
  - rewrite items_set_items. unfold kv_push. rewrite BbI_app. change (BbI [(k, ITable sub)] P) with (Bb sub (P ++ [k_key k]) false ++ []).
    rewrite app_nil_r, Bb_eq. pose proof (dctx_lframe _ _ _ _ _ Hc Hf) as Hl. rewrite (own_e_lframe _ _ _ _ Hl). unfold own_e at 1. cbn [implicitd t_dotted t_position app].
    rewrite <- app_assoc. apply Permutation_app_head. specialize (IH Hf (P ++ [k_key k]) D1 D2). rewrite <- app_assoc in IH. cbn [app] in IH.
    rewrite keys_cons in Hp. specialize (IH Hp). cbn [implicitd t_items BbI flat_map app] in IH. exact IH.
  - rewrite items_set_items. apply (BbI_set _ _ _ _ _ _ _ _ G). unfold Bit. cbn [fst snd]. rewrite !Bb_eq, (own_e_lframe _ _ _ _ (dctx_lframe _ _ _ _ _ Hc Hf)).
    rewrite <- !app_assoc. apply Permutation_app_head. rewrite (kv_get_key _ _ _ _ G). apply IH; [exact Hf|]. rewrite <- app_assoc. exact Hp.
  - rewrite items_set_items. apply (BbI_set _ _ _ _ _ _ _ _ G). unfold Bit. cbn [fst snd].
    assert (Ets : ts = rev rinit ++ [last]) by (rewrite <- (rev_involutive ts), Er; reflexivity).
    rewrite Ets. cbn [rev]. rewrite !flat_map_app. cbn [flat_map]. rewrite !app_nil_r, !Bb_eq, (own_e_lframe _ _ _ _ (dctx_lframe _ _ _ _ _ Hc Hf)).
    rewrite <- !app_assoc. apply Permutation_app_head, Permutation_app_head. rewrite (kv_get_key _ _ _ _ G). apply IH; [exact Hf|]. rewrite <- app_assoc. exact Hp.
Qed.

(* sections without a position stay silent *)
Lemma no_lines_lframe t t' : lframe t t' -> no_lines t' = no_lines t.
Proof. intros (_ & _ & _ & H). unfold no_lines. rewrite (H []). reflexivity. Qed.

Lemma dctx_hp p r r' par par' : dctx_rel false p r r' par par' -> hp r -> hp par /\ (hp par' -> lframe par par' -> hp r').
Proof.
  induction 1 as [t t'|t k p sub par par' G Hc IH|t k p k0 sub sub' par par' G Hc IH|t k p k0 ts sp last rinit last' par par' G Er Hc IH]; intro Hh.
  - auto.
  - destruct IH as [H1 H2]; [apply hp_eq; exact I|]. split; [exact H1|]. intros Hp Hf. apply hp_eq. rewrite items_set_items. apply hp_eq in Hh.
    apply all_P_push; [exact Hh|]. unfold hentry, hentry_of. cbn [snd]. split; [apply H2; assumption|].
    pose proof (dctx_lframe _ _ _ _ _ Hc Hf) as Hl. destruct Hl as (Hi & _ & Hq & Ht). split; [intros _; exact Hq|].
    intros _ _. split; [exact Hi|]. unfold no_lines. rewrite (Ht []). reflexivity.
  - apply hp_eq in Hh. pose proof (all_P_get _ _ _ _ _ Hh G) as (Hs & Hip & Hc0). cbn [snd] in Hs, Hip, Hc0. destruct (IH Hs) as [H1 H2]. split; [exact H1|].
    intros Hp Hf. apply hp_eq. rewrite items_set_items. apply (all_P_set _ _ _ k0 _ _ Hh G). unfold hentry, hentry_of. cbn [snd]. split; [apply H2; assumption|].
    pose proof (dctx_lframe _ _ _ _ _ Hc Hf) as Hl. pose proof Hl as (Hi & Hd & Hq & _). rewrite Hd, Hq, Hi, (no_lines_lframe _ _ Hl). split; assumption.
  - apply hp_eq in Hh. pose proof (all_P_get _ _ _ _ _ Hh G) as Hts. unfold hentry, hentry_of in Hts. cbn [snd] in Hts.
    assert (Ets : ts = rev rinit ++ [last]) by (rewrite <- (rev_involutive ts), Er; reflexivity).
    rewrite Ets in Hts. apply all_P_app in Hts as [Hinit [[Hl0 Hq0] _]]. destruct (IH Hl0) as [H1 H2]. split; [exact H1|].
    intros Hp Hf. apply hp_eq. rewrite items_set_items. apply (all_P_set _ _ _ k0 _ _ Hh G). unfold hentry, hentry_of. cbn [snd rev]. apply all_P_app.
    split; [exact Hinit|]. split; [|exact I]. split; [apply H2; assumption|]. destruct (dctx_lframe _ _ _ _ _ Hc Hf) as (_ & _ & Hq & _). rewrite Hq. exact Hq0.
Qed.

(* ---- the root ------------------------------------------------------------------------------------------------------------- *)
Lemma Broot_lframe r r' D1 D2 : lframe r r' -> Permutation (BbI (t_items r') [] ++ D1) (BbI (t_items r) [] ++ D2) ->
  Permutation (Broot r' ++ D1) (Broot r ++ D2).
Proof. intros Hf Hp. unfold Broot. rewrite (own_b_lframe _ _ [] false Hf). cbn [app]. apply perm_skip, Hp. Qed.

Definition anyk (k : key) : Prop := True.
Local Notation uk2' := (uk2 anyk).
Lemma all_anyk (p : list key) : Forall anyk p.
Proof. apply Forall_forall. intros; exact I. Qed.

(* what is known of the table being filled *)
Definition cur_ok (cur : tbl) : Prop := t_dotted cur = false /\ t_implicit cur = false /\ hp cur /\ uk2' cur.

(* descend_path for a header, all at once: what holds of the tree holds of the table `par` reached; and if what stands
   there afterwards has the same flags and lines, unique keys and silent sections, and its positioned sections with D1 are
   those of `par` with D2, the like holds of the whole tree *)
Lemma dctx_B p r r' par par' : dctx_rel false p r r' par par' -> uk2' r -> hp r ->
  uk2' par /\ hp par
  /\ forall D1 D2, lframe par par' /\ uk2' par' /\ hp par'
                   /\ Permutation (BbI (t_items par') (keys p) ++ D1) (BbI (t_items par) (keys p) ++ D2) ->
       lframe r r' /\ uk2' r' /\ hp r' /\ Permutation (Broot r' ++ D1) (Broot r ++ D2).
Proof.
  intros Hc Hu Hh. destruct (dctx_uk2 anyk _ _ _ _ _ _ Hc (all_anyk _) Hu) as [Hup Hup']. destruct (dctx_hp _ _ _ _ _ Hc Hh) as [Hhp Hhp'].
  split; [exact Hup|]. split; [exact Hhp|]. intros D1 D2 (Hf & Hu' & Hh' & HP). pose proof (dctx_lframe _ _ _ _ _ Hc Hf) as Hl.
  split; [exact Hl|]. split; [apply Hup', Hu'|]. split; [apply Hhp'; assumption|]. apply (Broot_lframe _ _ _ _ Hl), (dctx_permB _ _ _ _ _ Hc Hf []), HP.
Qed.

(* ---- finalize_table below the root ------------------------------------------------------------------------------------- *)
Lemma finalize_B st st' ppath k :
  pop_key (st_path st) = Some (ppath, k) -> finalize_table st = COk st' ->
  uk2' (st_root st) -> hp (st_root st) -> cur_ok (st_current st) -> t_position (st_current st) <> None ->
  (st_is_array st = false -> exists par, reach (st_root st) ppath = Some par /\ kv_get (t_items par) (k_key k) = None) ->
  st' = finalized st (st_root st') /\ lframe (st_root st) (st_root st') /\ uk2' (st_root st') /\ hp (st_root st')
  /\ Permutation (Broot (st_root st')) (Broot (st_root st) ++ Bb (st_current st) (keys (st_path st)) (st_is_array st)).
Proof.
  intros Ep Hf Hur Hhr (Hcd & Hci & Hhc & Huc) Hcp Habs. rewrite finalize_table_eq, Ep in Hf. pose proof (pop_key_some _ _ _ Ep) as Epath.
  destruct (with_table_at (st_root st) ppath false ((if st_is_array st then f_fin_aot else f_fin_std) k (st_current st))) as [[root' u]| |] eqn:E; try discriminate.
  injection Hf as <-. cbn [finalized st_root]. split; [reflexivity|].
  destruct (wta_dctx false _ _ _ _ _ E) as (par & par' & Hfp & Hc).
  destruct (dctx_B _ _ _ _ _ Hc Hur Hhr) as (Hupar & Hhpar & Hback). apply uk2_eq in Hupar as (Hn & Hs). apply hp_eq in Hhpar.
  assert (Ekeys : keys (st_path st) = keys ppath ++ [k_key k]) by (rewrite Epath; unfold keys; rewrite map_app; reflexivity).
  rewrite <- (app_nil_r (Broot root')). apply Hback. cbn [app].
  destruct (st_is_array st) eqn:Ea.
  - unfold f_fin_aot in Hfp. destruct (kv_get (t_items par) (k_key k)) as [[k0 it]|] eqn:G.
    + destruct it as [|v|sub|ts sp]; try discriminate. injection Hfp as <-.
      assert (Hfr : lframe par (t_set_items par (kv_set (t_items par) (k_key k) (IAot (ts ++ [st_current st])
                      match ts ++ [st_current st] with first :: _ => union_span (t_span first) (t_span (st_current st)) | [] => None end))))
        by (apply lframe_set_items; intro q; apply (tfl_set q _ _ _ _ _ G); reflexivity).
      split; [exact Hfr|]. split; [|split].
      * destruct (uks2_get anyk _ _ _ _ Hs G) as [Hk0 Hts]. apply uki2_aot in Hts.
        apply uk2_set_items; [rewrite keys_set; exact Hn|].
        apply (uks2_set anyk _ _ _ _ _ Hs G); [exact Hk0|]. apply uki2_aot. apply Forall_app. split; [exact Hts|constructor; [exact Huc|constructor]].
      * apply hp_eq. rewrite items_set_items. pose proof (all_P_get _ _ _ _ _ Hhpar G) as Hts. unfold hentry, hentry_of in Hts. cbn [snd] in Hts.
        apply (all_P_set _ _ _ k0 _ _ Hhpar G). unfold hentry, hentry_of. cbn [snd]. apply all_P_app. split; [exact Hts|]. split; [split; assumption|exact I].
      * rewrite items_set_items. apply (BbI_set _ _ _ _ _ _ _ _ G). unfold Bit. cbn [fst snd].
        rewrite flat_map_app. cbn [flat_map]. rewrite !app_nil_r, (kv_get_key _ _ _ _ G), Ekeys. reflexivity.
    + injection Hfp as <-.
      assert (Hfr : lframe par (t_set_items par (kv_push (t_items par) k (IAot [st_current st] (union_span (t_span (st_current st)) (t_span (st_current st)))))))
        by (apply lframe_set_items; intro q; apply tfl_push; reflexivity).
      split; [exact Hfr|]. split; [|split].
      * apply uk2_set_items; [apply nodup_push; assumption|].
        apply uks2_push; [exact Hs|intros _; exact I|]. apply uki2_aot. constructor; [exact Huc|constructor].
      * apply hp_eq. rewrite items_set_items. apply all_P_push; [exact Hhpar|]. unfold hentry, hentry_of. cbn [snd all_P]. auto.
      * rewrite items_set_items. unfold kv_push. rewrite BbI_app, app_nil_r.
        apply Permutation_app_head. unfold BbI, Bit. cbn [flat_map fst snd]. rewrite !app_nil_r, Ekeys. reflexivity.
  - destruct (Habs eq_refl) as (par0 & Hr & Hg). destruct (dctx_reach _ _ _ _ _ _ Hc) as [_ Hpar]. rewrite (Hpar par0 Hr) in Hg.
    unfold f_fin_std in Hfp. rewrite Hg in Hfp. injection Hfp as <-.
    assert (Hfr : lframe par (t_set_items par (kv_push (t_items par) k (ITable (st_current st)))))
      by (apply lframe_set_items; intro q; apply tfl_push; cbn [tflat_item]; rewrite Hcd; reflexivity).
    split; [exact Hfr|]. split; [|split].
    + apply uk2_set_items; [apply nodup_push; assumption|]. apply uks2_push; [exact Hs|intros _; exact I|exact Huc].
    + apply hp_eq. rewrite items_set_items. apply all_P_push; [exact Hhpar|]. unfold hentry, hentry_of. cbn [snd]. split; [exact Hhc|].
      split; [intro Hi; congruence|intros _ Hq; contradiction].
    + rewrite items_set_items. unfold kv_push. rewrite BbI_app, app_nil_r.
      apply Permutation_app_head. unfold BbI, Bit. cbn [flat_map fst snd]. rewrite !app_nil_r, Ekeys. reflexivity.
Qed.

(* ---- start_table ------------------------------------------------------------------------------------------------------------ *)
Lemma start_table_B st path dec sp st' ppath k :
  start_table st path dec sp = COk st' -> pop_key path = Some (ppath, k) -> uk2' (st_root st) -> hp (st_root st) -> t_items (st_current st) = [] ->
  exists T0,
    st' = open_table st (st_root st') (Tbl T0 decor_default false false None None) path dec sp false
    /\ uks2 anyk T0 /\ NoDup (map kk T0) /\ all_P hentry T0 /\ tfl [] T0 = []
    /\ lframe (st_root st) (st_root st') /\ uk2' (st_root st') /\ hp (st_root st')
    /\ Permutation (Broot (st_root st') ++ BbI T0 (keys path)) (Broot (st_root st))
    /\ exists par, reach (st_root st') ppath = Some par /\ kv_get (t_items par) (k_key k) = None.
Proof.
  intros H Ep Hur Hhr Hcur. destruct (start_table_dctx _ _ _ _ _ H) as (_ & _ & ppath' & k' & root' & par & par' & taken & Ep' & Hc & -> & Htk).
  rewrite Ep in Ep'. injection Ep' as <- <-. pose proof (pop_key_some _ _ _ Ep) as Epath.
  assert (Ekeys : keys path = keys ppath ++ [k_key k]) by (rewrite Epath; unfold keys; rewrite map_app; reflexivity).
  destruct (dctx_B _ _ _ _ _ Hc Hur Hhr) as (Hupar & Hhpar & Hback). specialize (Hback (BbI (match taken with Some t => t_items t | None => [] end) (keys path)) []).
  rewrite !app_nil_r in Hback. destruct (dctx_reach _ _ _ _ _ _ Hc) as [Hreach _]. cbn [open_table st_root]. destruct taken as [t|].
  - destruct Htk as ([k0 G] & Eim & Edt & ->). pose proof Hupar as Hupar0. apply uk2_eq in Hupar0 as (Hn & Hs). pose proof Hhpar as Hhpar0. apply hp_eq in Hhpar0.
    destruct (uks2_get anyk _ _ _ _ Hs G) as [_ Hut]. cbn [uki2] in Hut. apply uk2_eq in Hut as (Hnt & Hst).
    destruct (nodup_remove _ _ _ _ Hn G) as [Hn' Hg'].
    pose proof (all_P_get _ _ _ _ _ Hhpar0 G) as (Hht & Hip & Hct). cbn [snd] in Hht, Hip, Hct.
    pose proof (Hip Eim) as Hq. destruct (Hct Edt Hq) as [_ Hno].
    assert (Hnl : tfl [] (t_items t) = []) by (unfold no_lines in Hno; rewrite tflat_tfl in Hno; destruct (tfl [] (t_items t)); [reflexivity|discriminate]).
    exists (t_items t). split; [destruct t; reflexivity|].
    split; [exact Hst|]. split; [exact Hnt|]. split; [apply hp_eq, Hht|]. split; [exact Hnl|].
    rewrite <- !and_assoc. split; [rewrite !and_assoc; apply Hback|].
    + split; [apply lframe_set_items; intro q; apply (tfl_remove q _ _ _ _ G); cbn [tflat_item]; rewrite Edt; reflexivity|].
      split; [apply uk2_set_items; [exact Hn'|apply uks2_remove, Hs]|]. split; [apply hp_eq; rewrite items_set_items; apply all_P_remove, Hhpar0|].
      rewrite items_set_items. destruct (kv_get_split _ _ _ _ G) as (A & B & EA & _ & _ & ER). rewrite ER, EA, !BbI_app.
      change (BbI ((k0, ITable t) :: B) (keys ppath)) with (Bb t (keys ppath ++ [k_key k0]) false ++ BbI B (keys ppath)). rewrite Bb_eq.
      unfold own_e. rewrite Edt, Hq. cbn [app]. rewrite (kv_get_key _ _ _ _ G), <- Ekeys. rewrite <- !app_assoc. apply Permutation_app_head, Permutation_app_comm.
    + exists (t_set_items par (kv_remove (t_items par) (k_key k))). split; [exact Hreach|]. rewrite items_set_items. exact Hg'.
  - destruct Htk as [G ->]. exists []. split; [unfold open_table; rewrite Hcur; reflexivity|]. split; [constructor|]. split; [constructor|]. split; [exact I|]. split; [reflexivity|].
    rewrite <- !and_assoc. split; [|exists par; split; [exact Hreach|exact G]]. rewrite !and_assoc. apply Hback.
    split; [apply lframe_refl|]. split; [exact Hupar|]. split; [exact Hhpar|]. cbn [BbI flat_map]. rewrite app_nil_r. reflexivity.
Qed.

(* ---- start_array_table ---------------------------------------------------------------------------------------------------- *)
Lemma start_array_B st path dec sp st' ppath k :
  start_array_table st path dec sp = COk st' -> pop_key path = Some (ppath, k) -> uk2' (st_root st) -> hp (st_root st) ->
  st' = open_table st (st_root st') (st_current st) path dec sp true
  /\ lframe (st_root st) (st_root st') /\ uk2' (st_root st') /\ hp (st_root st')
  /\ Permutation (Broot (st_root st')) (Broot (st_root st)).
Proof.
  intros H Ep Hur Hhr. destruct (start_array_table_dctx _ _ _ _ _ H) as (_ & _ & ppath' & k' & root' & par & par' & Ep' & Hc & -> & Hpar').
  rewrite Ep in Ep'. injection Ep' as <- <-. destruct (dctx_B _ _ _ _ _ Hc Hur Hhr) as (Hupar & Hhpar & Hback).
  cbn [open_table st_root]. split; [reflexivity|]. rewrite <- (app_nil_r (Broot root')), <- (app_nil_r (Broot (st_root st))). apply Hback.
  destruct Hpar' as [[_ ->]|[G ->]]; [split; [apply lframe_refl|auto]|]. apply uk2_eq in Hupar as (Hn & Hs). apply hp_eq in Hhpar.
  split; [apply lframe_set_items; intro q; apply tfl_push; reflexivity|]. split; [|split].
  - apply uk2_set_items; [apply nodup_push; assumption|]. apply uks2_push; [exact Hs|intros _; exact I|]. apply uki2_aot. constructor.
  - apply hp_eq. rewrite items_set_items. apply all_P_push; [exact Hhpar|]. exact I.
  - rewrite items_set_items. unfold kv_push. rewrite BbI_app. unfold BbI at 2. cbn [flat_map Bit snd app]. rewrite !app_nil_r. reflexivity.
Qed.
