(* Proofs/WFParseFlags.v — parsed documents are well-formed, part 5: which tables print something.
   Specification side (any leaf type): every tree the definition rules of Spec/Defs.v build — the pinned code's
   resolution of class U1 included (`spec_fold false`) — satisfies `gtree`: a table that exists only as a super-table
   is not empty, a table made of dotted keys holds a key/value line (directly or through tables made of dotted keys),
   an array of tables has an element.  The tree of an accepted document is such a tree (C02: `code_run`), so the flag
   clauses of Spec/WF.v hold for it (`flags_of_gtree`). *)
From TV Require Import Base.Prelude Spec.Defs.
From TV Require Import Proofs.WFSem.
Require Import Lia.

Section G.
  Variable V : Type.
  Local Notation T := (stree V).
  Local Notation node := (node V).

  (* the entry is, or holds through tables made of dotted keys, a key/value line *)
  Fixpoint lineish (n : node) : bool :=
    match n with
    | NVal _ => true
    | NTab KDotted c => (fix go (l : list (bytes * node)) : bool := match l with [] => false | kn :: tl => lineish (snd kn) || go tl end) c
    | _ => false
    end.
  Definition t_line (c : T) : bool := existsb (fun kn => lineish (snd kn)) c.
  Lemma lineish_dotted c : lineish (NTab KDotted c) = t_line c.
  Proof. cbn [lineish]. unfold t_line. induction c as [|kn c IH]; [reflexivity|]. cbn [existsb]. rewrite IH. reflexivity. Qed.

  Fixpoint gnode (n : node) : Prop :=
    match n with
    | NVal _ => True
    | NTab kd c =>
      match kd with KSuper => c <> [] | KDotted => t_line c = true | KHeader => True end
      /\ (fix go (l : list (bytes * node)) : Prop := match l with [] => True | kn :: tl => gnode (snd kn) /\ go tl end) c
    | NAot es =>
      es <> []
      /\ (fix goe (l : list (list (bytes * node))) : Prop :=
            match l with
            | [] => True
            | e :: tl => (fix go (l : list (bytes * node)) : Prop := match l with [] => True | kn :: tl => gnode (snd kn) /\ go tl end) e /\ goe tl
            end) es
    end.
  Definition gtree (c : T) : Prop := Forall (fun kn => gnode (snd kn)) c.
  Lemma gnode_go c : (fix go (l : list (bytes * node)) : Prop := match l with [] => True | kn :: tl => gnode (snd kn) /\ go tl end) c <-> gtree c.
  Proof. unfold gtree. induction c as [|kn c IH]; [split; [constructor|exact (fun _ => I)]|]. rewrite IH. split; [intros [H1 H2]; constructor; assumption|intro H; inversion H; auto]. Qed.
  Lemma gnode_tab kd c : gnode (NTab kd c) <-> (match kd with KSuper => c <> [] | KDotted => t_line c = true | KHeader => True end) /\ gtree c.
  Proof. cbn [gnode]. rewrite gnode_go. reflexivity. Qed.
  Lemma gnode_aot es : gnode (NAot es) <-> es <> [] /\ Forall gtree es.
  Proof.
    cbn [gnode]. split; intros [H1 H2]; (split; [exact H1|]).
    - clear H1. induction es as [|e es IH]; [constructor|]. destruct H2 as [H2 H3]. constructor; [apply gnode_go, H2|apply IH, H3].
    - clear H1. induction H2 as [|e es He _ IH]; [exact I|]. split; [apply gnode_go, He|exact IH].
  Qed.

  (* ---- elementary facts ----------------------------------------------------------------------------------------------- *)
  Lemma gtree_sget (t : T) k n : gtree t -> sget t k = Some n -> gnode n.
  Proof.
    unfold gtree. induction t as [|[k' n'] t IH]; cbn [sget]; [discriminate|]. intros H E. inversion H; subst.
    destruct (bytes_eqb k' k); [inversion E; subst; assumption|auto].
  Qed.
  Lemma gtree_sset (t : T) k n : gtree t -> gnode n -> gtree (sset t k n).
  Proof.
    unfold gtree. induction t as [|[k' n'] t IH]; cbn [sset]; [auto|]. intros H Hn. inversion H; subst.
    destruct (bytes_eqb k' k); constructor; auto.
  Qed.
  Lemma gtree_spush (t : T) k n : gtree t -> gnode n -> gtree (spush t k n).
  Proof. unfold gtree, spush. intros H Hn. apply Forall_app. split; [exact H|constructor; [exact Hn|constructor]]. Qed.
  Lemma gtree_sremove (t : T) k : gtree t -> gtree (sremove t k).
  Proof.
    unfold gtree. induction t as [|[k' n'] t IH]; cbn [sremove]; [auto|]. intro H. inversion H; subst.
    destruct (bytes_eqb k' k); [assumption|constructor; auto].
  Qed.

  Lemma t_line_spush (t : T) k n : t_line (spush t k n) = t_line t || lineish n.
  Proof. unfold t_line, spush. rewrite existsb_app. cbn [existsb snd]. rewrite orb_false_r. reflexivity. Qed.
  Lemma t_line_sset (t : T) k n0 n : sget t k = Some n0 -> (lineish n0 = true -> lineish n = true) -> t_line t = true -> t_line (sset t k n) = true.
  Proof.
    unfold t_line. induction t as [|[k' n'] t IH]; cbn [sget sset existsb snd]; [discriminate|]. destruct (bytes_eqb k' k).
    - intros E Hn H. inversion E; subst. cbn [existsb snd]. apply orb_true_iff in H as [H|H]; [rewrite (Hn H); reflexivity|rewrite H; apply orb_true_r].
    - intros E Hn H. cbn [existsb snd]. apply orb_true_iff in H as [H|H]; [rewrite H; reflexivity|rewrite (IH E Hn H); apply orb_true_r].
  Qed.
  Lemma t_line_sset_new (t : T) k n0 n : sget t k = Some n0 -> lineish n = true -> t_line (sset t k n) = true.
  Proof.
    unfold t_line. induction t as [|[k' n'] t IH]; cbn [sget sset existsb snd]; [discriminate|]. destruct (bytes_eqb k' k).
    - intros _ Hn. cbn [existsb snd]. rewrite Hn. reflexivity.
    - intros E Hn. cbn [existsb snd]. rewrite (IH E Hn). apply orb_true_r.
  Qed.
  Lemma t_line_sremove (t : T) k n0 : sget t k = Some n0 -> lineish n0 = false -> t_line (sremove t k) = t_line t.
  Proof.
    unfold t_line. induction t as [|[k' n'] t IH]; cbn [sget sremove existsb snd]; [reflexivity|]. destruct (bytes_eqb k' k).
    - intros E Hn. inversion E; subst. rewrite Hn. reflexivity.
    - intros E Hn. cbn [existsb snd]. rewrite (IH E Hn). reflexivity.
  Qed.
  Lemma t_line_nonempty (t : T) : t_line t = true -> t <> [].
  Proof. destruct t; [discriminate|discriminate]. Qed.
  Lemma spush_nonempty (t : T) k n : spush t k n <> [].
  Proof. unfold spush. destruct t; discriminate. Qed.
  Lemma sset_nonempty (t : T) k n0 n : sget t k = Some n0 -> sset t k n <> [].
  Proof. destruct t as [|[k' n'] t]; cbn [sget sset]; [discriminate|]. destruct (bytes_eqb k' k); discriminate. Qed.

  (* what a step at the end of a path must do: keep the tree good, leave it non-empty, keep its lines *)
  Definition gstep (f : T -> res T) : Prop :=
    forall t t', gtree t -> f t = ROk t' -> gtree t' /\ t' <> [] /\ (t_line t = true -> t_line t' = true).

  Lemma insert_kv_g : forall p v, gstep (insert_kv false p v) /\ forall t', insert_kv false p v [] = ROk t' -> t_line t' = true.
  Proof.
    induction p as [|k p IH]; intro v; [split; [intros t t' _ H; discriminate|intros t' H; discriminate]|].
    assert (G : gstep (insert_kv false (k :: p) v)).
    { intros t t' Ht H. destruct p as [|k1 p1].
      - cbn [insert_kv] in H. destruct (sget t k); [discriminate|]. injection H as <-.
        split; [apply gtree_spush; [exact Ht|exact I]|]. split; [apply spush_nonempty|]. intros _. rewrite t_line_spush. apply orb_true_r.
      - rewrite (insert_kv_cons V) in H. destruct (IH v) as [IH1 IH2]. destruct (sget t k) as [[v0|kd c|es]|] eqn:E; try discriminate.
        + destruct kd; try discriminate.
          * (* a super-table on the way: the pinned code walks through it unless it would receive the key *)
            cbn [negb] in H. destruct p1 as [|k2 p2]; [discriminate|].
            destruct (insert_kv false (k1 :: k2 :: p2) v c) as [c'| |] eqn:Ec; try discriminate. injection H as <-.
            pose proof (gtree_sget _ _ _ Ht E) as Hn. apply gnode_tab in Hn as [_ Hc]. destruct (IH1 c c' Hc Ec) as (Hc' & Hne & _).
            split; [apply gtree_sset; [exact Ht|apply gnode_tab; auto]|]. split; [apply (sset_nonempty _ _ _ _ E)|].
            apply (t_line_sset _ _ _ _ E). discriminate.
          * destruct (insert_kv false (k1 :: p1) v c) as [c'| |] eqn:Ec; try discriminate. injection H as <-.
            pose proof (gtree_sget _ _ _ Ht E) as Hn. apply gnode_tab in Hn as [Hl Hc]. destruct (IH1 c c' Hc Ec) as (Hc' & Hne & Hl').
            split; [apply gtree_sset; [exact Ht|apply gnode_tab; auto]|]. split; [apply (sset_nonempty _ _ _ _ E)|].
            intros _. apply (t_line_sset_new _ _ _ _ E). rewrite lineish_dotted. auto.
        + destruct (insert_kv false (k1 :: p1) v []) as [c'| |] eqn:Ec; try discriminate. injection H as <-.
          destruct (IH1 [] c' (Forall_nil _) Ec) as (Hc' & Hne & _). pose proof (IH2 c' eq_refl) as Hl.
          split; [apply gtree_spush; [exact Ht|apply gnode_tab; auto]|]. split; [apply spush_nonempty|].
          intros _. rewrite t_line_spush, lineish_dotted, Hl. apply orb_true_r. }
    split; [exact G|]. intros t' H. destruct p as [|k1 p1].
    - cbn [insert_kv sget] in H. injection H as <-. reflexivity.
    - rewrite (insert_kv_cons V) in H. cbn [sget] in H. destruct (IH v) as [IH1 IH2].
      destruct (insert_kv false (k1 :: p1) v []) as [c'| |] eqn:Ec; try discriminate. injection H as <-.
      rewrite t_line_spush, lineish_dotted, (IH2 c' eq_refl). reflexivity.
  Qed.

  Lemma def_table_g k : gstep (def_table k).
  Proof.
    intros t t' Ht H. unfold def_table in H. destruct (sget t k) as [[v0|kd c|es]|] eqn:E; try discriminate.
    - destruct kd; try discriminate. injection H as <-. pose proof (gtree_sget _ _ _ Ht E) as Hn. apply gnode_tab in Hn as [_ Hc].
      split; [apply gtree_spush; [apply gtree_sremove, Ht|apply gnode_tab; auto]|]. split; [apply spush_nonempty|].
      intro Hl. rewrite t_line_spush, (t_line_sremove _ _ _ E eq_refl), Hl. reflexivity.
    - injection H as <-. split; [apply gtree_spush; [exact Ht|apply gnode_tab; split; [exact I|constructor]]|]. split; [apply spush_nonempty|].
      intro Hl. rewrite t_line_spush, Hl. reflexivity.
  Qed.
  Lemma def_elem_g k : gstep (def_elem k).
  Proof.
    intros t t' Ht H. unfold def_elem in H. destruct (sget t k) as [[v0|kd c|es]|] eqn:E; try discriminate.
    - injection H as <-. pose proof (gtree_sget _ _ _ Ht E) as Hn. apply gnode_aot in Hn as [Hne Hes].
      split; [apply gtree_sset; [exact Ht|apply gnode_aot; split; [destruct es; discriminate|apply Forall_app; split; [exact Hes|constructor; [constructor|constructor]]]]|].
      split; [apply (sset_nonempty _ _ _ _ E)|]. apply (t_line_sset _ _ _ _ E). discriminate.
    - injection H as <-. split; [apply gtree_spush; [exact Ht|apply gnode_aot; split; [discriminate|constructor; [constructor|constructor]]]|].
      split; [apply spush_nonempty|]. intro Hl. rewrite t_line_spush, Hl. reflexivity.
  Qed.

  Lemma at_path_g f : gstep f -> forall p, gstep (at_path p f).
  Proof.
    intros Hf. induction p as [|k p IH]; [exact Hf|]. intros t t' Ht H. cbn [at_path] in H.
    destruct (sget t k) as [[v0|kd c|es]|] eqn:E; try discriminate.
    - destruct (at_path p f c) as [c'| |] eqn:Ec; try discriminate. injection H as <-.
      pose proof (gtree_sget _ _ _ Ht E) as Hn. apply gnode_tab in Hn as [Hk Hc]. destruct (IH c c' Hc Ec) as (Hc' & Hne & Hl').
      split; [apply gtree_sset; [exact Ht|apply gnode_tab; split; [destruct kd; auto|exact Hc']]|]. split; [apply (sset_nonempty _ _ _ _ E)|].
      apply (t_line_sset _ _ _ _ E). destruct kd; try discriminate. rewrite !lineish_dotted. exact Hl'.
    - destruct (rev es) as [|e before] eqn:Er; [discriminate|]. destruct (at_path p f e) as [e'| |] eqn:Ee; try discriminate. injection H as <-.
      pose proof (gtree_sget _ _ _ Ht E) as Hn. apply gnode_aot in Hn as [_ Hes].
      assert (Ees : es = rev before ++ [e]) by (rewrite <- (rev_involutive es), Er; reflexivity). rewrite Ees in Hes. apply Forall_app in Hes as [Hb He]. inversion He; subst.
      destruct (IH e e' H1 Ee) as (He' & _ & _).
      split; [apply gtree_sset; [exact Ht|apply gnode_aot; split; [destruct (rev before); discriminate|apply Forall_app; split; [exact Hb|constructor; [exact He'|constructor]]]]|].
      split; [apply (sset_nonempty _ _ _ _ E)|]. apply (t_line_sset _ _ _ _ E). discriminate.
    - destruct (at_path p f []) as [c'| |] eqn:Ec; try discriminate. injection H as <-. destruct (IH [] c' (Forall_nil _) Ec) as (Hc' & Hne & _).
      split; [apply gtree_spush; [exact Ht|apply gnode_tab; auto]|]. split; [apply spush_nonempty|]. intro Hl. rewrite t_line_spush, Hl. reflexivity.
  Qed.

  Lemma spec_step_g S st S' : spec_step false S st = ROk S' -> gtree (fst S) -> gtree (fst S').
  Proof.
    destruct S as [t cur]. destruct st as [p|p|p v]; cbn [spec_step fst].
    - destruct (unsnoc p) as [[pre k]|]; [|discriminate]. destruct (at_path pre (def_table k) t) as [t'| |] eqn:E; try discriminate.
      intros H Ht. injection H as <-. cbn [fst]. apply (at_path_g _ (def_table_g k) pre t t' Ht E).
    - destruct (unsnoc p) as [[pre k]|]; [|discriminate]. destruct (at_path pre (def_elem k) t) as [t'| |] eqn:E; try discriminate.
      intros H Ht. injection H as <-. cbn [fst]. apply (at_path_g _ (def_elem_g k) pre t t' Ht E).
    - destruct (at_path cur (insert_kv false p v) t) as [t'| |] eqn:E; try discriminate.
      intros H Ht. injection H as <-. cbn [fst]. apply (at_path_g _ (proj1 (insert_kv_g p v)) cur t t' Ht E).
  Qed.
  Lemma spec_fold_g l : forall S S', spec_fold false S l = ROk S' -> gtree (fst S) -> gtree (fst S').
  Proof.
    induction l as [|st l IH]; intros S S' H Ht; cbn [spec_fold] in H; [injection H as <-; exact Ht|].
    destruct (spec_step false S st) as [S1| |] eqn:E; try discriminate. apply (IH S1 S' H). apply (spec_step_g S st S1 E Ht).
  Qed.
  Theorem code_run_g l t : code_run l = Valid t -> gtree t.
  Proof.
    unfold code_run, run. destruct (spec_fold false sstate0 l) as [[t0 cur]| |] eqn:E; try discriminate. intro H. injection H as <-.
    apply (spec_fold_g l sstate0 (t0, cur) E). constructor.
  Qed.
End G.
