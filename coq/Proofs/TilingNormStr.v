(* Proofs/TilingNormStr.v — C03, scanner side, part 2: the four kinds of strings are pieces
   (follow condition: no quote follows), kept verbatim, statement-like.
   The multi-line strings go through a scanner-oriented description `safe e` of a body (every
   run of unescaped quotes has length <= 2 and is followed by a non-quote, except a final run of
   <= 2 quotes), proved from the grammar of Spec/Lex.v. *)
From TV Require Import Base.Prelude Spec.Abnf Spec.Lex Spec.Norm.
From TV Require Import Proofs.LexEquivBase Proofs.LexEquivString Proofs.LexEquivMlBasic Proofs.LexEquivMlLit.
From TV Require Import Proofs.TilingDefs Proofs.TilingNormScan.
Require Import Lia ZifyBool ZifyN ZifyNat.

(* no quote of either kind follows *)
Definition qstop (r : bytes) : Prop := match r with [] => True | b :: _ => b <> x22 /\ b <> x27 end.

(* neither CR nor LF *)
Definition ncl (b : byte) : bool := negb (byte_eqb b x0d) && negb (byte_eqb b x0a).

(* a statement-like labelled text: a solid first byte, no line end inside *)
Lemma summ_solid b l zs o :
  is_comment l = false -> blank b = false -> line_nl (b, l) = false -> no_nl zs ->
  outz zs = o -> ends_lf (b :: o) = false -> summ CS ((b, l) :: zs) (b :: o).
Proof.
  intros Hc Hb Hl Hn Ho He. split; [|split; [|split; [discriminate|exact He]]].
  - unfold outz in *. cbn [filter]. unfold kept at 1. cbn [fst snd].
    unfold blank in Hb. apply orb_false_iff in Hb as [_ Hb]. rewrite Hb. cbn [andb negb map fst]. rewrite Ho. reflexivity.
  - intros f Hf. rewrite flag_cons. replace (flag_step f (b, l)) with FStmt; [apply flag_stmt_no_nl, Hn|].
    unfold flag_step. rewrite Hl. cbn [fst snd]. rewrite Hc, Hb. destruct f; congruence.
Qed.

(* ================================================================================================= *)
(* basic strings                                                                                     *)
(* ================================================================================================= *)
(* a byte of a basic-string body that the scanner reads in one step *)
Definition bub (b : byte) : bool := negb (byte_eqb b x22) && negb (byte_eqb b x5c) && ncl b.

Lemma basic_unescaped_bub b : basic_unescaped b = true -> bub b = true.
Proof. unfold bub, ncl. cls. lia. Qed.
Lemma hexdig_bub b : hexdig b = true -> bub b = true.
Proof. unfold bub, ncl. cls. lia. Qed.

Lemma step_basic_in c tl : bub c = true -> step SBasic c (c :: tl) = (LBasic, SBasic).
Proof.
  unfold bub. intro H. apply andb_true_iff in H as [H _]. apply andb_true_iff in H as [H1 H2].
  apply negb_true_iff in H1, H2. unfold step. rewrite H1, H2. reflexivity.
Qed.

Lemma labels_basic_run a r : forallb bub a = true ->
  labels SBasic (a ++ r) = map (fun _ => LBasic) a ++ labels SBasic r.
Proof.
  induction a as [|c a IH]; [reflexivity|]. cbn [forallb]. intro H. apply andb_true_iff in H as [Hc Ha].
  cbn [app]. rewrite labels_cons, step_basic_in by exact Hc. cbn [fst snd map app]. rewrite IH by exact Ha. reflexivity.
Qed.

Lemma labels_basic_esc b r : labels SBasic (x5c :: b :: r) = LBasic :: LBasic :: labels SBasic r.
Proof. rewrite labels_cons. cbn [step fst snd]. change (byte_eqb x5c x5c) with true. cbn [andb negb fst snd]. rewrite labels_cons. reflexivity. Qed.

Lemma labels_basic_close r : labels SBasic (x22 :: r) = LNormal :: labels SNormal r.
Proof. rewrite labels_cons. reflexivity. Qed.

Lemma hex_run_bub h : all hexdig h -> forallb bub h = true.
Proof. apply forallb_impl, hexdig_bub. Qed.

Lemma labels_basic_body body v r : star basic_char body v ->
  labels SBasic (body ++ x22 :: r) = map (fun _ => LBasic) body ++ LNormal :: labels SNormal r.
Proof.
  induction 1 as [|t1 v1 t2 v2 H1 _ IH]; [apply labels_basic_close|].
  rewrite <- app_assoc, map_app, <- app_assoc.
  destruct H1 as [(b & Hb & -> & ->) | He].
  - cbn [app map]. rewrite labels_cons, step_basic_in by (apply basic_unescaped_bub, Hb). cbn [fst snd]. rewrite IH. reflexivity.
  - destruct He as [b n Hb | b k h Hb Hl Hh Hsc].
    + cbn [app map]. rewrite labels_basic_esc, IH. reflexivity.
    + cbn [app map]. rewrite labels_basic_esc, labels_basic_run by (apply hex_run_bub, Hh). rewrite IH. reflexivity.
Qed.

Lemma escape_char_ncl b : escape_simple b <> None \/ escape_hex b <> None -> ncl b = true.
Proof.
  intro H. destruct (escape_char_not_ws b H) as (_ & H1 & H2). unfold ncl. rewrite H1, H2. reflexivity.
Qed.

Lemma hexdig_ncl b : hexdig b = true -> ncl b = true.
Proof. unfold ncl. cls. lia. Qed.

Lemma escaped_ncl e s : escaped_tok e s -> forallb ncl e = true.
Proof.
  intros [b n Hb | b k h Hb Hl Hh Hsc]; cbn [forallb]; change (ncl x5c) with true; cbn [andb].
  - rewrite escape_char_ncl by (left; congruence). reflexivity.
  - rewrite escape_char_ncl by (right; congruence). cbn [andb]. apply (forallb_impl hexdig ncl h hexdig_ncl Hh).
Qed.

Lemma basic_body_ncl body v : star basic_char body v -> forallb ncl body = true.
Proof.
  induction 1 as [|t1 v1 t2 v2 H1 _ IH]; [reflexivity|]. rewrite forallb_app, IH, andb_true_r.
  destruct H1 as [(b & Hb & -> & ->) | He]; [|apply (escaped_ncl _ _ He)].
  cbn [forallb]. rewrite andb_true_r. revert Hb. unfold ncl. cls. lia.
Qed.

(* the labelled text of a one-line string with quote q and body label l *)
Definition qz (q : byte) (l : label) (body : bytes) : lz := (q, LNormal) :: tag l body ++ [(q, LNormal)].

Lemma txt_qz q l body : txt (qz q l body) = [q] ++ body ++ [q].
Proof. unfold qz. cbn [txt map fst app]. fold (txt (tag l body ++ [(q, LNormal)])). rewrite txt_app, txt_tag. reflexivity. Qed.

Lemma lab_qz q l body : lab (qz q l body) = LNormal :: map (fun _ => l) body ++ [LNormal].
Proof. unfold qz. cbn [lab map snd]. fold (lab (tag l body ++ [(q, LNormal)])). rewrite lab_app, lab_tag. reflexivity. Qed.

Lemma summ_qz q l body : (q = x22 \/ q = x27) -> in_ml l = false -> is_comment l = false -> forallb ncl body = true ->
  summ CS (qz q l body) ([q] ++ body ++ [q]).
Proof.
  intros Hq Hl Hc Hb. unfold qz. cbn [app]. apply summ_solid.
  - reflexivity.
  - destruct Hq as [-> | ->]; reflexivity.
  - destruct Hq as [-> | ->]; reflexivity.
  - apply no_nl_app; [apply nocrlf_no_nl, Hb|]. constructor; [|constructor]. destruct Hq as [-> | ->]; reflexivity.
  - rewrite outz_app, outz_tag_ncr by exact Hl. rewrite ncr_nocr by (apply nocrlf_nocr, Hb).
    destruct Hq as [-> | ->]; reflexivity.
  - change (q :: body ++ [q]) with ((q :: body) ++ [q]). rewrite ends_lf_snoc. destruct Hq as [-> | ->]; reflexivity.
Qed.

Lemma starts3_second q a b s : byte_eqb b q = false -> starts3 q (a :: b :: s) = false.
Proof. intro H. unfold starts3. destruct s; [reflexivity|]. rewrite H. apply andb_false_r || (rewrite andb_false_r; reflexivity). Qed.

Lemma starts3_two q r : match r with [] => True | b :: _ => byte_eqb b q = false end -> starts3 q (q :: q :: r) = false.
Proof. destruct r as [|b r]; [reflexivity|]. intro H. unfold starts3. rewrite H. apply andb_false_r. Qed.

Lemma nocmt_qz q l body : is_comment l = false -> nocmt (qz q l body).
Proof.
  intro H. unfold qz. change ((q, LNormal) :: tag l body ++ [(q, LNormal)]) with (tag LNormal [q] ++ tag l body ++ tag LNormal [q]).
  apply nocmt_app; [apply nocmt_tag; reflexivity|]. apply nocmt_app; [apply nocmt_tag, H|apply nocmt_tag; reflexivity].
Qed.

Lemma qt_basic_string t v : basic_string_tok t v -> qt CS qstop t.
Proof.
  intros (_ & body & -> & Hb). exists (qz x22 LBasic body). split; [apply txt_qz|]. split; [|split; [|apply nocmt_qz; reflexivity]].
  - intros r Hr. rewrite txt_qz, lab_qz. cbn [app]. rewrite <- app_assoc. cbn [app]. rewrite labels_cons.
    assert (E : step SNormal x22 (x22 :: body ++ x22 :: r) = (LNormal, SBasic)).
    { unfold step. change (byte_eqb x22 x23) with false. cbv iota.
      rewrite (starts3_head x27) by reflexivity.
      replace (starts3 x22 (x22 :: body ++ x22 :: r)) with false; [reflexivity|]. symmetry.
      destruct (basic_body_head body v Hb) as [-> | (b & t' & -> & Hq)].
      - cbn [app]. apply starts3_two. destruct r as [|c r]; [exact I|]. destruct Hr as [Hr _].
        apply byte_eqb_neq. exact Hr.
      - cbn [app]. apply starts3_second. rewrite byte_eqb_n, N.eqb_sym, <- byte_eqb_n. exact Hq. }
    rewrite E. cbn [fst snd]. rewrite (labels_basic_body body v r Hb). rewrite <- app_assoc. reflexivity.
  - apply summ_qz; [auto|reflexivity|reflexivity|apply (basic_body_ncl body v Hb)].
Qed.

Lemma til_basic_string t v : basic_string_tok t v -> til CS qstop t t.
Proof. intro H. apply qt_til, (qt_basic_string t v H). Qed.

(* ================================================================================================= *)
(* literal strings                                                                                   *)
(* ================================================================================================= *)
Lemma step_literal_in c tl : byte_eqb c x27 = false -> step SLiteral c (c :: tl) = (LLiteral, SLiteral).
Proof. intro H. unfold step. rewrite H. reflexivity. Qed.

Lemma one_star_all (c : byte -> bool) body v : star (one c) body v -> forallb c body = true.
Proof.
  induction 1 as [|t1 v1 t2 v2 (b & Hb & -> & ->) _ IH]; [reflexivity|]. cbn [app forallb]. rewrite Hb, IH. reflexivity.
Qed.

Lemma literal_char_facts b : literal_char b = true -> byte_eqb b x27 = false /\ ncl b = true.
Proof. unfold ncl. cls. lia. Qed.

Lemma labels_literal_body body r : forallb literal_char body = true ->
  labels SLiteral (body ++ x27 :: r) = map (fun _ => LLiteral) body ++ LNormal :: labels SNormal r.
Proof.
  induction body as [|c body IH]; intro H.
  - cbn [app map]. rewrite labels_cons. reflexivity.
  - cbn [forallb] in H. apply andb_true_iff in H as [Hc Hb]. cbn [app map].
    rewrite labels_cons, step_literal_in by (apply literal_char_facts, Hc). cbn [fst snd]. rewrite IH by exact Hb. reflexivity.
Qed.

Lemma qt_literal_string t v : literal_string_tok t v -> qt CS qstop t.
Proof.
  intros (_ & body & -> & Hb). apply one_star_all in Hb.
  exists (qz x27 LLiteral body). split; [apply txt_qz|]. split; [|split; [|apply nocmt_qz; reflexivity]].
  - intros r Hr. rewrite txt_qz, lab_qz. cbn [app]. rewrite <- app_assoc. cbn [app]. rewrite labels_cons.
    assert (E : step SNormal x27 (x27 :: body ++ x27 :: r) = (LNormal, SLiteral)).
    { unfold step. change (byte_eqb x27 x23) with false. cbv iota.
      rewrite (starts3_head x22) by reflexivity.
      replace (starts3 x27 (x27 :: body ++ x27 :: r)) with false; [reflexivity|]. symmetry.
      destruct body as [|b t'].
      - cbn [app]. apply starts3_two. destruct r as [|c r]; [exact I|]. destruct Hr as [_ Hr].
        apply byte_eqb_neq. exact Hr.
      - cbn [app]. apply starts3_second. cbn [forallb] in Hb. apply andb_true_iff in Hb as [Hb _].
        apply literal_char_facts, Hb. }
    rewrite E. cbn [fst snd]. rewrite (labels_literal_body body r Hb). rewrite <- app_assoc. reflexivity.
  - apply summ_qz; [auto|reflexivity|reflexivity|]. revert Hb. apply forallb_impl. intros b Hc. apply literal_char_facts, Hc.
Qed.

Lemma til_literal_string t v : literal_string_tok t v -> til CS qstop t t.
Proof. intro H. apply qt_til, (qt_literal_string t v H). Qed.

(* ================================================================================================= *)
(* multi-line strings: the scanner                                                                   *)
(* ================================================================================================= *)
(* e = true: ml-basic (backslash escapes), e = false: ml-literal *)
Definition mlst (e : bool) : sstate := if e then SMlBasic else SMlLiteral.
Definition mllab (e : bool) : label := if e then LMlBasic else LMlLiteral.
Definition mlq (e : bool) : byte := if e then x22 else x27.

Lemma step_ml e c s : step (mlst e) c s =
  if e && byte_eqb c x5c && negb (match (match s with _ :: t => t | [] => [] end) with [] => true | _ => false end)
  then (mllab e, SEmit [mllab e] (mlst e))
  else if starts3 (mlq e) s
       then match ml_close (mlq e) (mllab e) s with l :: ls => (l, emit ls SNormal) | [] => (LNormal, SNormal) end
       else (mllab e, mlst e).
Proof. destruct e; reflexivity. Qed.

(* a byte the ml scanner reads in one step: not the quote, not a backslash (ml-basic) *)
Definition okb (e : bool) (b : byte) : bool := negb (byte_eqb b (mlq e)) && negb (e && byte_eqb b x5c).

Inductive safe (e : bool) : bytes -> Prop :=
| sf_nil : safe e []
| sf_q1 : safe e [mlq e]
| sf_q2 : safe e [mlq e; mlq e]
| sf_plain b x : okb e b = true -> safe e x -> safe e (b :: x)
| sf_esc b x : e = true -> safe e x -> safe e (x5c :: b :: x)
| sf_qq1 b x : byte_eqb b (mlq e) = false -> safe e (b :: x) -> safe e (mlq e :: b :: x)
| sf_qq2 b x : byte_eqb b (mlq e) = false -> safe e (b :: x) -> safe e (mlq e :: mlq e :: b :: x).

Definition nhq (q : byte) (r : bytes) : Prop := match r with [] => True | b :: _ => byte_eqb b q = false end.

Lemma run_len_stop q r : nhq q r -> run_len q r = 0.
Proof. destruct r as [|b r]; [reflexivity|]. cbn [nhq run_len]. intros ->. reflexivity. Qed.

Lemma run_len_repeat q n r : nhq q r -> run_len q (repeat q n ++ r) = n.
Proof.
  intro H. induction n as [|n IH]; [apply run_len_stop, H|]. cbn [repeat app run_len].
  rewrite byte_eqb_refl, IH. reflexivity.
Qed.

Lemma mlq_not_bs e : e && byte_eqb (mlq e) x5c = false.
Proof. destruct e; reflexivity. Qed.

(* at the closing run: n <= 2 body quotes, then the delimiter *)
Lemma ml_close_labels e n r : n <= 2 -> nhq (mlq e) r ->
  labels (mlst e) (repeat (mlq e) n ++ [mlq e; mlq e; mlq e] ++ r)
  = repeat (mllab e) n ++ [LNormal; LNormal; LNormal] ++ labels SNormal r.
Proof.
  intros Hn Hr.
  assert (E : repeat (mlq e) n ++ [mlq e; mlq e; mlq e] ++ r = repeat (mlq e) (n + 3) ++ r).
  { rewrite repeat_app, <- app_assoc. reflexivity. }
  rewrite E. replace (n + 3) with (S (n + 2)) by lia. cbn [repeat app].
  rewrite labels_cons, step_ml, mlq_not_bs. cbn [andb].
  change (mlq e :: repeat (mlq e) (n + 2) ++ r) with (repeat (mlq e) (S (n + 2)) ++ r).
  assert (S3 : starts3 (mlq e) (repeat (mlq e) (S (n + 2)) ++ r) = true).
  { replace (S (n + 2)) with (3 + n) by lia. cbn [repeat Nat.add app starts3]. rewrite byte_eqb_refl. reflexivity. }
  rewrite S3. unfold ml_close. rewrite run_len_repeat by exact Hr.
  replace (Nat.min (S (n + 2) - 3) 2) with n by lia.
  assert (L : forall ls, length ls = n + 2 -> labels (emit ls SNormal) (repeat (mlq e) (n + 2) ++ r) = ls ++ labels SNormal r).
  { intros ls Hl. apply labels_emit. rewrite repeat_length. lia. }
  destruct n as [|[|[|n]]]; [| | |lia]; cbn [repeat app fst snd]; rewrite L by reflexivity; reflexivity.
Qed.

Lemma okb_facts e b : okb e b = true -> byte_eqb b (mlq e) = false /\ e && byte_eqb b x5c = false.
Proof. unfold okb. intro H. apply andb_true_iff in H as [H1 H2]. apply negb_true_iff in H1, H2. auto. Qed.

Lemma step_ml_in e b tl : okb e b = true -> step (mlst e) b (b :: tl) = (mllab e, mlst e).
Proof.
  intro H. destruct (okb_facts e b H) as [H1 H2]. rewrite step_ml, H2. cbn [andb].
  rewrite starts3_head by exact H1. reflexivity.
Qed.

Lemma ml_scan e x r : safe e x -> nhq (mlq e) r ->
  labels (mlst e) (x ++ [mlq e; mlq e; mlq e] ++ r)
  = map (fun _ => mllab e) x ++ [LNormal; LNormal; LNormal] ++ labels SNormal r.
Proof.
  intros Hs Hr. induction Hs as [| | |b x Hb _ IH|b x He _ IH|b x Hb _ IH|b x Hb _ IH].
  - apply (ml_close_labels e 0); [lia|exact Hr].
  - apply (ml_close_labels e 1); [lia|exact Hr].
  - apply (ml_close_labels e 2); [lia|exact Hr].
  - cbn [app map] in *. rewrite labels_cons, step_ml_in by exact Hb. cbn [fst snd]. rewrite IH. reflexivity.
  - subst e. cbn [app map] in *. rewrite labels_cons. cbn [mlst step fst snd].
    change (byte_eqb x5c x5c) with true. cbn [andb negb fst snd]. rewrite labels_cons. cbn [step fst snd emit].
    change SMlBasic with (mlst true). rewrite IH. reflexivity.
  - cbn [app map] in *. rewrite labels_cons, step_ml, mlq_not_bs. cbn [andb].
    rewrite starts3_second by exact Hb. cbn [fst snd]. rewrite IH. reflexivity.
  - cbn [app map] in *. rewrite labels_cons, step_ml, mlq_not_bs. cbn [andb].
    replace (starts3 (mlq e) (mlq e :: mlq e :: b :: x ++ mlq e :: mlq e :: mlq e :: r)) with false
      by (unfold starts3; rewrite Hb, andb_false_r; reflexivity).
    cbn [fst snd]. rewrite labels_cons, step_ml, mlq_not_bs. cbn [andb].
    rewrite starts3_second by exact Hb. cbn [fst snd]. rewrite IH. reflexivity.
Qed.

Lemma safe_run e a x : forallb (okb e) a = true -> safe e x -> safe e (a ++ x).
Proof.
  induction a as [|b a IH]; [auto|]. cbn [forallb]. intros H Hx. apply andb_true_iff in H as [Hb Ha].
  cbn [app]. apply sf_plain; [exact Hb|apply IH; assumption].
Qed.

(* the labelled text of a multi-line string *)
Definition mlz (e : bool) (x : bytes) : lz :=
  tag LNormal [mlq e; mlq e; mlq e] ++ tag (mllab e) x ++ tag LNormal [mlq e; mlq e; mlq e].

Lemma qt_ml e x : safe e x -> qt CS qstop ([mlq e; mlq e; mlq e] ++ x ++ [mlq e; mlq e; mlq e]).
Proof.
  intro Hs. exists (mlz e x). unfold mlz. split; [rewrite !txt_app, !txt_tag; reflexivity|]. split; [|split].
  3: { apply nocmt_app; [apply nocmt_tag; reflexivity|]. apply nocmt_app; [apply nocmt_tag; destruct e; reflexivity|apply nocmt_tag; reflexivity]. }
  - intros r Hr. rewrite !txt_app, !lab_app, !txt_tag, !lab_tag, <- !app_assoc.
    assert (Hq : nhq (mlq e) r).
    { destruct r as [|c r]; [exact I|]. destruct Hr as [H1 H2]. cbn [nhq]. apply byte_eqb_neq. destruct e; assumption. }
    assert (O : forall s, labels SNormal ([mlq e; mlq e; mlq e] ++ s) = [LNormal; LNormal; LNormal] ++ labels (mlst e) s).
    { intro s. destruct e; cbn [app mlq]; rewrite labels_cons; cbn [step fst snd];
        [change (starts3 x22 (x22 :: x22 :: x22 :: s)) with true|change (starts3 x27 (x27 :: x27 :: x27 :: s)) with true];
        cbv iota; cbn [fst snd]; rewrite labels_cons; cbn [step fst snd emit]; rewrite labels_cons; reflexivity. }
    rewrite O, (ml_scan e x r Hs Hq). reflexivity.
  - cbn [tag map app]. apply summ_solid.
    + reflexivity.
    + destruct e; reflexivity.
    + destruct e; reflexivity.
    + constructor; [destruct e; reflexivity|]. constructor; [destruct e; reflexivity|].
      apply no_nl_app; [apply ml_no_nl; destruct e; reflexivity|].
      repeat (constructor; [destruct e; reflexivity|]). constructor.
    + change (outz (tag LNormal [mlq e; mlq e] ++ tag (mllab e) x ++ tag LNormal [mlq e; mlq e; mlq e]) = mlq e :: mlq e :: x ++ [mlq e; mlq e; mlq e]).
      rewrite !outz_app, (outz_tag_ml (mllab e)) by (destruct e; reflexivity).
      destruct e; reflexivity.
    + replace (mlq e :: mlq e :: mlq e :: x ++ [mlq e; mlq e; mlq e]) with ((mlq e :: mlq e :: mlq e :: x ++ [mlq e; mlq e]) ++ [mlq e])
        by (cbn [app]; rewrite <- app_assoc; reflexivity).
      rewrite ends_lf_snoc. destruct e; reflexivity.
Qed.

(* ================================================================================================= *)
(* multi-line strings: the grammar gives safe bodies                                                 *)
(* ================================================================================================= *)
Lemma newline_okb e nl : newline_tok nl -> forallb (okb e) nl = true.
Proof. intros [-> | ->]; destruct e; reflexivity. Qed.

Lemma wschar_okb e b : wschar b = true -> okb e b = true.
Proof. unfold okb. destruct e; cbn [mlq andb]; cls; lia. Qed.

Lemma ws_okb e w : ws_tok w -> forallb (okb e) w = true.
Proof. apply forallb_impl, wschar_okb. Qed.

Lemma first_newline_okb e nl body : first_newline nl body -> forallb (okb e) nl = true.
Proof. intros [H | [-> _]]; [apply newline_okb, H|reflexivity]. Qed.

(* ---- ml-basic ---------------------------------------------------------------------------------------- *)
Lemma mlb_unescaped_okb b : mlb_unescaped b = true -> okb true b = true.
Proof. unfold okb. cbn [mlq andb]. cls. lia. Qed.

Lemma hexdig_okb b : hexdig b = true -> okb true b = true.
Proof. unfold okb. cbn [mlq andb]. cls. lia. Qed.

Lemma hex_run_okb h : all hexdig h -> forallb (okb true) h = true.
Proof. apply forallb_impl, hexdig_okb. Qed.

Lemma ws_newline_run_okb tl : ws_newline_run tl -> forallb (okb true) tl = true.
Proof.
  induction 1 as [|b t Hb _ IH|nl t Hn _ IH]; [reflexivity| |].
  - cbn [forallb]. rewrite wschar_okb by exact Hb. exact IH.
  - rewrite forallb_app, newline_okb by exact Hn. exact IH.
Qed.

Lemma safe_escaped c v x : escaped_tok c v -> safe true x -> safe true (c ++ x).
Proof.
  intros [b n Hb | b k h Hb Hl Hh Hsc] Hx.
  - cbn [app]. apply sf_esc; [reflexivity|exact Hx].
  - cbn [app]. apply sf_esc; [reflexivity|]. apply safe_run; [apply hex_run_okb, Hh|exact Hx].
Qed.

Lemma safe_escaped_nl c x : mlb_escaped_nl_tok c -> safe true x -> safe true (c ++ x).
Proof.
  intros (w & nl & tl & -> & Hw & Hn & Ht) Hx.
  assert (A : forallb (okb true) (w ++ nl ++ tl) = true).
  { rewrite !forallb_app, ws_okb, newline_okb, ws_newline_run_okb by assumption. reflexivity. }
  cbn [app]. destruct (w ++ nl ++ tl) as [|b y] eqn:E.
  - exfalso. destruct w; [|discriminate]. destruct Hn as [-> | ->]; discriminate.
  - cbn [forallb] in A. apply andb_true_iff in A as [_ A]. cbn [app]. apply sf_esc; [reflexivity|].
    apply safe_run; assumption.
Qed.

Lemma safe_contents c v : mlb_contents c v -> forall x, safe true x -> safe true (c ++ x).
Proof.
  induction 1 as [|c v t w Hc _ IH|c v t w [Hn _] _ IH|c t w Hc _ _ IH]; intros x Hx; [exact Hx| | |];
    rewrite <- app_assoc.
  - destruct Hc as [(b & Hb & -> & ->) | He].
    + cbn [app]. apply sf_plain; [apply mlb_unescaped_okb, Hb|apply IH, Hx].
    + apply (safe_escaped c v); [exact He|apply IH, Hx].
  - apply safe_run; [apply newline_okb, Hn|apply IH, Hx].
  - apply safe_escaped_nl; [exact Hc|apply IH, Hx].
Qed.

Lemma safe_quotes_then q vq b y : mlb_quotes q vq -> byte_eqb b x22 = false -> safe true (b :: y) -> safe true (q ++ b :: y).
Proof.
  intros Hq Hb Hy. destruct (mlb_quotes_cases q vq Hq) as [[-> | ->] _]; cbn [app].
  - apply (sf_qq1 true); assumption.
  - apply (sf_qq2 true); assumption.
Qed.

Lemma safe_qgroups g w : star (cat mlb_quotes mlb_contents1) g w -> forall x, safe true x -> safe true (g ++ x).
Proof.
  induction 1 as [|t1 v1 t2 v2 H1 _ IH]; intros x Hx; [exact Hx|].
  destruct H1 as (q & vq & c & vc & -> & -> & Hq & Hc). rewrite <- !app_assoc.
  destruct (contents1_head c vc Hc) as (b & c' & -> & Hb). destruct Hc as [_ Hc].
  pose proof (safe_contents _ _ Hc (t2 ++ x) (IH x Hx)) as Hs. cbn [app] in *.
  apply (safe_quotes_then q vq); [exact Hq|rewrite byte_eqb_n, N.eqb_sym, <- byte_eqb_n; exact Hb|exact Hs].
Qed.

Lemma safe_ml_basic_body body v : ml_basic_body_tok body v -> safe true body.
Proof.
  intros (c & vc & t2 & v2 & -> & -> & Hc & (g & vg & m & vm & -> & -> & Hg & Hm)).
  apply (safe_contents c vc Hc). apply (safe_qgroups g vg Hg).
  destruct (maybe_mlb_quotes_cases m vm Hm) as [[-> | [-> | ->]] _]; [apply sf_nil|apply (sf_q1 true)|apply (sf_q2 true)].
Qed.

Lemma qt_ml_basic_string t v : ml_basic_string_tok t v -> qt CS qstop t.
Proof.
  intros (_ & nl & body & -> & Hn & Hb).
  replace ([x22; x22; x22] ++ nl ++ body ++ [x22; x22; x22]) with ([x22; x22; x22] ++ (nl ++ body) ++ [x22; x22; x22])
    by (rewrite <- app_assoc; reflexivity).
  apply (qt_ml true). apply safe_run; [apply (first_newline_okb true nl body Hn)|apply (safe_ml_basic_body body v Hb)].
Qed.

(* ---- ml-literal -------------------------------------------------------------------------------------- *)
Lemma mll_char_okb b : mll_char b = true -> okb false b = true.
Proof. unfold okb. cbn [mlq andb]. cls. lia. Qed.

Lemma mll_content_okb t v : mll_content_tok t v -> forallb (okb false) t = true.
Proof.
  intros [(b & Hb & -> & ->) | [Hn _]]; [|apply newline_okb, Hn].
  cbn [forallb]. rewrite mll_char_okb by exact Hb. reflexivity.
Qed.

Lemma mll_contents_okb t v : star mll_content_tok t v -> forallb (okb false) t = true.
Proof.
  induction 1 as [|t1 v1 t2 v2 H1 _ IH]; [reflexivity|]. rewrite forallb_app, IH, (mll_content_okb t1 v1 H1). reflexivity.
Qed.

Lemma safe_lit_qgroups g w : star (cat mll_quotes (star1 mll_content_tok)) g w -> forall x, safe false x -> safe false (g ++ x).
Proof.
  induction 1 as [|t1 v1 t2 v2 H1 _ IH]; intros x Hx; [exact Hx|].
  destruct H1 as (q & vq & c & vc & -> & -> & Hq & Hc). rewrite <- !app_assoc.
  assert (Hok : forallb (okb false) c = true).
  { destruct Hc as (c1 & w1 & c2 & w2 & -> & -> & H1 & H2). rewrite forallb_app, (mll_content_okb _ _ H1), (mll_contents_okb _ _ H2). reflexivity. }
  destruct (star1_head c vc Hc) as (b & c' & -> & Hb).
  pose proof (safe_run false _ (t2 ++ x) Hok (IH x Hx)) as Hs. cbn [app] in *.
  assert (Hb' : byte_eqb b (mlq false) = false) by (cbn [mlq]; rewrite byte_eqb_n, N.eqb_sym, <- byte_eqb_n; exact Hb).
  destruct (mll_quotes_cases q vq Hq) as [[-> | ->] _]; cbn [app].
  - apply (sf_qq1 false); assumption.
  - apply (sf_qq2 false); assumption.
Qed.

Lemma safe_ml_literal_body body v : ml_literal_body_tok body v -> safe false body.
Proof.
  intros (c & vc & t2 & v2 & -> & -> & Hc & (g & vg & m & vm & -> & -> & Hg & Hm)).
  apply safe_run; [apply (mll_contents_okb c vc Hc)|]. apply (safe_lit_qgroups g vg Hg).
  destruct (maybe_quotes_cases m vm Hm) as [-> | [-> | ->]]; [apply sf_nil|apply (sf_q1 false)|apply (sf_q2 false)].
Qed.

Lemma qt_ml_literal_string t v : ml_literal_string_tok t v -> qt CS qstop t.
Proof.
  intros (_ & nl & body & -> & Hn & Hb).
  replace ([x27; x27; x27] ++ nl ++ body ++ [x27; x27; x27]) with ([x27; x27; x27] ++ (nl ++ body) ++ [x27; x27; x27])
    by (rewrite <- app_assoc; reflexivity).
  apply (qt_ml false). apply safe_run; [apply (first_newline_okb false nl body Hn)|apply (safe_ml_literal_body body v Hb)].
Qed.

(* ---- string ---------------------------------------------------------------------------------------------- *)
Theorem qt_string t v : string_tok t v -> qt CS qstop t.
Proof.
  intros [H | [H | [H | H]]].
  - apply (qt_ml_basic_string t v H).
  - apply (qt_basic_string t v H).
  - apply (qt_ml_literal_string t v H).
  - apply (qt_literal_string t v H).
Qed.

Theorem til_string t v : string_tok t v -> til CS qstop t t.
Proof. intro H. apply qt_til, (qt_string t v H). Qed.
