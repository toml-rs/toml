(* Proofs/BuiltRTParse.v — C06: a small "this parser reads exactly this text" calculus over the
   mini-winnow combinators (positions existentially quantified: spans do not matter for C06),
   trivia on the blanks the printer emits, the separated loops on printed lists, check_recursion. *)
From TV Require Import Base.Prelude Base.Utf8 Base.Winnow Gen.Consts.
From TV Require Import Model.Trivia Model.Strings Model.Datetime Model.Numbers Model.Tree Model.Parse.
From TV Require Import Proofs.StringsRTDefs Proofs.StringsRTBase Proofs.StringsRTMlLit.
Require Import Lia ZifyBool ZifyN ZifyNat.

(* q reads exactly t in front of r (at any offset, at nesting depth d) and its result satisfies Q *)
Definition pto {A} (q : parser A) (t r : bytes) (d : nat) (Q : A -> Prop) : Prop :=
  forall p, exists a p', q (mkIn (t ++ r) p d) = Ok a (mkIn r p' d) /\ Q a.

Lemma pto_weaken {A} (q : parser A) t r d (Q Q' : A -> Prop) :
  pto q t r d Q -> (forall a, Q a -> Q' a) -> pto q t r d Q'.
Proof. intros H HQ p. destruct (H p) as (a & p' & E & Ha). exists a, p'. auto. Qed.

Lemma pto_bind {A B} (q : parser A) (f : A -> parser B) t1 t2 r d (Q1 : A -> Prop) (Q2 : B -> Prop) :
  pto q t1 (t2 ++ r) d Q1 -> (forall a, Q1 a -> pto (f a) t2 r d Q2) -> pto (bind q f) (t1 ++ t2) r d Q2.
Proof.
  intros H1 H2 p. destruct (H1 p) as (a & p1 & E1 & HQ). destruct (H2 a HQ p1) as (b & p2 & E2 & HQ2).
  exists b, p2. split; [|exact HQ2]. rewrite <- app_assoc. rewrite (bind_ok _ _ _ _ _ E1). exact E2.
Qed.

Lemma pto_ret {A} (a : A) r d (Q : A -> Prop) : Q a -> pto (ret a) [] r d Q.
Proof. intros H p. exists a, p. split; [reflexivity|exact H]. Qed.

Lemma pto_pmap {A B} (f : A -> B) (q : parser A) t r d (Q : B -> Prop) :
  pto q t r d (fun a => Q (f a)) -> pto (pmap f q) t r d Q.
Proof. intros H p. destruct (H p) as (a & p' & E & Ha). exists (f a), p'. rewrite (pmap_ok _ _ _ _ _ E). auto. Qed.

Lemma pto_cut_err {A} (q : parser A) t r d (Q : A -> Prop) : pto q t r d Q -> pto (cut_err q) t r d Q.
Proof. intros H p. destruct (H p) as (a & p' & E & Ha). exists a, p'. rewrite (cut_err_ok _ _ _ _ E). auto. Qed.

Lemma pto_context {A} (q : parser A) t r d (Q : A -> Prop) : pto q t r d Q -> pto (context q) t r d Q.
Proof. intros H p. destruct (H p) as (a & p' & E & Ha). exists a, p'. rewrite (context_ok _ _ _ _ E). auto. Qed.

Lemma pto_span {A} (q : parser A) t r d (Q0 : A -> Prop) : pto q t r d Q0 -> pto (span_ q) t r d (fun _ => True).
Proof. intros H p. destruct (H p) as (a & p' & E & Ha). exists (p, p'), p'. rewrite (span_ok _ _ _ _ E). auto. Qed.

Lemma pto_with_span {A} (q : parser A) t r d (Q0 : A -> Prop) :
  pto q t r d Q0 -> pto (with_span q) t r d (fun x => Q0 (fst x)).
Proof. intros H p. destruct (H p) as (a & p' & E & Ha). exists (a, (p, p')), p'. rewrite (with_span_ok _ _ _ _ E). auto. Qed.

Lemma pto_alt_l {A} (q q' : parser A) t r d (Q : A -> Prop) : pto q t r d Q -> pto (alt q q') t r d Q.
Proof. intros H p. destruct (H p) as (a & p' & E & Ha). exists a, p'. rewrite (alt_ok _ _ _ _ _ E). auto. Qed.

Lemma pto_byte x r d : pto (byte_ x) [x] r d (fun _ => True).
Proof. intro p. exists x, (p + 1)%N. split; [apply byte_yes|exact I]. Qed.

Lemma pto_eq {A} (q q' : parser A) t r d (Q : A -> Prop) :
  (forall p, q (mkIn (t ++ r) p d) = q' (mkIn (t ++ r) p d)) -> pto q' t r d Q -> pto q t r d Q.
Proof. intros E H p. rewrite E. apply H. Qed.

Lemma pto_bind_ret {A B} (q : parser A) (f : A -> B) t r d (Q1 : A -> Prop) (Q2 : B -> Prop) :
  pto q t r d Q1 -> (forall a, Q1 a -> Q2 (f a)) -> pto (bind q (fun a => ret (f a))) t r d Q2.
Proof.
  intros H HQ p. destruct (H p) as (a & p' & E & Ha). exists (f a), p'.
  rewrite (bind_ok _ _ _ _ _ E). split; [reflexivity|auto].
Qed.

Lemma pto_try_map {A B} (f : A -> tm B) (q : parser A) t r d (Q0 : A -> Prop) (Q : B -> Prop) :
  pto q t r d Q0 -> (forall a, Q0 a -> exists b, f a = TmOk b /\ Q b) -> pto (try_map f q) t r d Q.
Proof.
  intros H Hf p. destruct (H p) as (a & p' & E & Ha). destruct (Hf a Ha) as (b & Eb & Hb).
  exists b, p'. rewrite (try_map_ok _ _ _ _ _ _ E Eb). auto.
Qed.

(* ---- blanks ------------------------------------------------------------------------------------------ *)
(* the only trivia the printer emits around constructed values and keys: nothing or one space *)
Definition sp (a : bytes) : Prop := a = [] \/ a = [x20].

Lemma sp_spaces a : sp a -> exists k, a = repeat x20 k.
Proof. intros [-> | ->]; [exists 0|exists 1]; reflexivity. Qed.

(* the head of r ends a run of whitespace / comments / newlines *)
Definition wscn_stop (r : bytes) : Prop :=
  match r with
  | [] => True
  | b :: _ => in_class WSCHAR b = false /\ byte_eqb b x23 = false /\ byte_eqb b x0a = false /\ byte_eqb b x0d = false
  end.

Lemma wscn_stop_ws r : wscn_stop r -> stops (in_class WSCHAR) r.
Proof. destruct r as [|b r]; [auto|]. intros [H _]. exact H. Qed.

(* a run of k spaces (k = 4: the indentation of the multi-line array layout) *)
Lemma spaces_ws k : forallb (in_class WSCHAR) (repeat x20 k) = true.
Proof. induction k as [|k IH]; [reflexivity|]. cbn [repeat forallb]. rewrite IH. reflexivity. Qed.
Lemma spaces_utf8 k : utf8_valid_b (repeat x20 k) = true.
Proof. induction k as [|k IH]; [reflexivity|]. cbn [repeat]. rewrite utf8_cons_ascii by (cbn; lia). exact IH. Qed.

Lemma ws_spaces k r p d : stops (in_class WSCHAR) r ->
  ws (mkIn (repeat x20 k ++ r) p d) = Ok (repeat x20 k) (after (repeat x20 k) r p d).
Proof.
  intro Hr. unfold ws, unchecked_utf8, take_while0.
  rewrite (take_while_yes 0 (in_class WSCHAR) (repeat x20 k) r p d (spaces_ws k) Hr (Nat.le_0_l _)).
  rewrite spaces_utf8. reflexivity.
Qed.

Lemma wscn_f_spaces f start k r p d : wscn_stop r ->
  ws_comment_newline_f (S f) start (mkIn (repeat x20 k ++ r) p d) = Ok tt (after (repeat x20 k) r p d).
Proof.
  intro Hr. cbn [ws_comment_newline_f]. rewrite (ws_spaces k r p d (wscn_stop_ws r Hr)). unfold after. cbn [rest].
  destruct r as [|b r']; [reflexivity|]. destruct Hr as (_ & H1 & H2 & H3). rewrite H1, H2, H3. reflexivity.
Qed.

Lemma pto_ws a r d : sp a -> stops (in_class WSCHAR) r -> pto ws a r d (fun _ => True).
Proof. intros Ha Hr p. destruct (sp_spaces a Ha) as (k & ->). eexists. eexists. split; [apply ws_spaces, Hr|exact I]. Qed.

Lemma pto_wscn a r d : sp a -> wscn_stop r -> pto ws_comment_newline a r d (fun _ => True).
Proof.
  intros Ha Hr p. destruct (sp_spaces a Ha) as (k & ->). eexists. eexists. split; [|exact I].
  unfold ws_comment_newline. apply (wscn_f_spaces _ _ k r p d Hr).
Qed.

(* a line break and an indentation of k spaces (the multi-line array layout: k = 4 before an element, k = 0
   before the closing bracket) *)
Definition nl_blank (k : nat) : bytes := x0a :: repeat x20 k.

Lemma wscn_f_nl f start X p d :
  ws_comment_newline_f (S f) start (mkIn (x0a :: X) p d)
  = if ((p + 1)%N =? start)%N then Ok tt (mkIn X (p + 1)%N d) else ws_comment_newline_f f (p + 1)%N (mkIn X (p + 1)%N d).
Proof.
  cbn [ws_comment_newline_f]. rewrite (ws_none (x0a :: X) p d) by reflexivity. cbn [rest].
  change (byte_eqb x0a x23) with false. change (byte_eqb x0a x0a) with true. cbv iota.
  rewrite newline_lf. cbn [pos]. reflexivity.
Qed.

Lemma pto_wscn_nl k r d : wscn_stop r -> pto ws_comment_newline (nl_blank k) r d (fun _ => True).
Proof.
  intros Hr p. unfold nl_blank.
  exists tt, (p + 1 + N.of_nat (length (repeat x20 k)))%N. split; [|exact I].
  unfold ws_comment_newline. cbn [rest app length pos].
  rewrite wscn_f_nl. replace ((p + 1 =? p)%N) with false by (symmetry; apply N.eqb_neq; lia).
  rewrite (wscn_f_spaces _ _ k r (p + 1)%N d Hr). reflexivity.
Qed.

(* ---- check_recursion ---------------------------------------------------------------------------------- *)
Lemma pto_check_recursion {A} (q : parser A) t r d (Q : A -> Prop) :
  S d < LIMIT -> pto q t r (S d) Q -> pto (check_recursion q) t r d Q.
Proof.
  intros Hd H p. destruct (H p) as (a & p' & E & Ha). exists a, p'. split; [|exact Ha].
  unfold check_recursion, set_depth. cbn [rest pos depth].
  destruct (Nat.leb LIMIT (S d)) eqn:El; [apply Nat.leb_le in El; lia|].
  rewrite E. reflexivity.
Qed.

(* ---- separated0 / separated1 after their first element ------------------------------------------------ *)
Lemma separated0_ok {A Sp} (q : parser A) (sep : parser Sp) i a i1 :
  q i = Ok a i1 -> separated0 q sep i = separated_loop (S (length (rest i1))) q sep [a] i1.
Proof. intro H. unfold separated0. rewrite H. reflexivity. Qed.
Lemma separated1_ok {A Sp} (q : parser A) (sep : parser Sp) i a i1 :
  q i = Ok a i1 -> separated1 q sep i = separated_loop (S (length (rest i1))) q sep [a] i1.
Proof. intro H. unfold separated1. rewrite H. reflexivity. Qed.

(* ---- separated(.., q, byte) on a printed list -------------------------------------------------------- *)
Section SepLoop.
  Context {A : Type}.
  Variable q : parser A.
  Variable sepb : byte.
  Variable d : nat.
  Variable C : bytes -> Prop.           (* what may follow an element *)

  Record seg : Type := mkSeg { seg_txt : bytes; seg_ok : A -> Prop }.
  Definition seg_parses (s : seg) : Prop := forall R, C R -> pto q (seg_txt s) R d (seg_ok s).
  Fixpoint segs_txt (l : list seg) : bytes :=
    match l with [] => [] | s :: tl => sepb :: seg_txt s ++ segs_txt tl end.

  (* where the loop ends: in front of Rend it returns what it has gathered and leaves Rend *)
  Definition loop_ends (Rend : bytes) : Prop :=
    forall fuel acc p, length Rend < fuel ->
      separated_loop fuel q (byte_ sepb) acc (mkIn Rend p d) = Ok (rev acc) (mkIn Rend p d).

  Lemma loop_ends_stop Rend : stops (byte_eqb sepb) Rend -> loop_ends Rend.
  Proof. intros Hstop [|f] acc p Hf; [inversion Hf|]. cbn [separated_loop]. rewrite (byte_no sepb Rend p d Hstop). reflexivity. Qed.

  (* a separator FOLLOWS the last element and the element parser backtracks on what comes after it (a trailing
     comma): the loop gives the separator back *)
  Definition bt_after (R : bytes) : Prop := forall p, exists e i', q (mkIn R p d) = Bt e i'.

  Lemma loop_ends_sep R : bt_after R -> loop_ends (sepb :: R).
  Proof.
    intros Hbt [|f] acc p Hf; [inversion Hf|]. cbn [separated_loop]. rewrite byte_yes. cbn [rest length].
    rewrite (eqb_lt _ _ (Nat.lt_succ_diag_r (length R))). destruct (Hbt (p + 1)%N) as (e & i' & E). rewrite E. reflexivity.
  Qed.

  Hypothesis C_sep : forall R, C (sepb :: R).

  Lemma C_segs tl Rend : C Rend -> C (segs_txt tl ++ Rend).
  Proof. destruct tl as [|s tl]; [auto|]. intros _. cbn [segs_txt app]. apply C_sep. Qed.

  Lemma separated_loop_segs l Rend :
    Forall seg_parses l -> C Rend -> loop_ends Rend ->
    forall fuel acc p, length (segs_txt l ++ Rend) < fuel ->
    exists res p', separated_loop fuel q (byte_ sepb) acc (mkIn (segs_txt l ++ Rend) p d)
                   = Ok (rev acc ++ res) (mkIn Rend p' d) /\ Forall2 (fun s a => seg_ok s a) l res.
  Proof.
    intros Hl HC Hend. induction Hl as [|s tl Hs Htl IH]; intros fuel acc p Hf.
    - exists [], p. cbn [segs_txt app] in *. rewrite (Hend fuel acc p Hf), app_nil_r. split; [reflexivity|constructor].
    - destruct fuel as [|f]; [lia|].
      assert (Et : segs_txt (s :: tl) ++ Rend = sepb :: seg_txt s ++ segs_txt tl ++ Rend).
      { cbn [segs_txt app]. rewrite <- app_assoc. reflexivity. }
      rewrite Et in Hf |- *. cbn [separated_loop].
      rewrite byte_yes. cbn [rest length].
      rewrite (eqb_lt (length (seg_txt s ++ segs_txt tl ++ Rend))) by lia.
      destruct (Hs (segs_txt tl ++ Rend) (C_segs tl Rend HC) (p + 1)%N) as (a & p1 & E & Ha).
      rewrite E.
      destruct (IH f (a :: acc) p1) as (res & p2 & E2 & Hres).
      { cbn [length] in Hf. rewrite app_length in Hf. lia. }
      exists (a :: res), p2. split.
      + rewrite E2. cbn [rev]. rewrite <- app_assoc. reflexivity.
      + constructor; assumption.
  Qed.

  (* separated0 / separated1 (`sepd`) on  t0 sep t1 sep t2 ... : after the first element both are the loop *)
  Lemma separated_segs (sepd : parser (list A)) s0 l Rend :
    (forall i a i1, q i = Ok a i1 -> sepd i = separated_loop (S (length (rest i1))) q (byte_ sepb) [a] i1) ->
    seg_parses s0 -> Forall seg_parses l -> C Rend -> loop_ends Rend ->
    forall p, exists res p', sepd (mkIn (seg_txt s0 ++ segs_txt l ++ Rend) p d)
                             = Ok res (mkIn Rend p' d) /\ Forall2 (fun s a => seg_ok s a) (s0 :: l) res.
  Proof.
    intros Hsepd H0 Hl HC Hend p.
    destruct (H0 (segs_txt l ++ Rend) (C_segs l Rend HC) p) as (a & p1 & E & Ha).
    destruct (separated_loop_segs l Rend Hl HC Hend (S (length (segs_txt l ++ Rend))) [a] p1 (Nat.lt_succ_diag_r _))
      as (res & p2 & E2 & Hres).
    exists (a :: res), p2. rewrite (Hsepd _ _ _ E). cbn [rest]. rewrite E2. split; [reflexivity|].
    constructor; assumption.
  Qed.
End SepLoop.
