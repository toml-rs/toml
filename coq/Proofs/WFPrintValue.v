(* Proofs/WFPrintValue.v — WF backbone, values: what `encode_value` prints for a well-formed value is
       <prefix trivia> t <suffix trivia>
   where t is a `val` of the grammar (Spec/Syntax.v val_tok) denoting an abstract value a with
       den a = absv v   (the value's own data),   aval_ok a,   within d a   (the limits). *)
From TV Require Import Base.Prelude Gen.Consts Spec.Lex Spec.Syntax Spec.WF.
From TV Require Import Model.Tree Model.Parse Model.Encode.
From TV Require Import Proofs.GrammarBase Proofs.GrammarValueBase.
From TV Require Import Proofs.WFSem Proofs.WFTok Proofs.WFPrintKey Proofs.WFPrintFlat.
From TV Require Import Proofs.KvFacts.
From TV Require Import Proofs.ModelFacts.
Require Import Lia.
From TV Require Import Base.ListFacts.

(* ---- slots of a value's decor ------------------------------------------------------------------------------------- *)
Definition pre_slot (c : vctx) : slot := match c with CLine => SWs | CArr => SWscn | CInl => SWs end.
Definition suf_slot (c : vctx) : slot := match c with CLine => SLineTrail | CArr => SWscn | CInl => SWs end.
Lemma vdecor_slots c d : vdecor_ok c d -> decor_ok (pre_slot c) (suf_slot c) d.
Proof. destruct c; auto. Qed.

Definition dflt_ok (dflt : bytes * bytes) : Prop := ws_tok (fst dflt) /\ ws_tok (snd dflt).
Lemma dflt_value : dflt_ok DEFAULT_VALUE_DECOR. Proof. split; reflexivity. Qed.
Lemma dflt_leading : dflt_ok DEFAULT_LEADING_VALUE_DECOR. Proof. split; reflexivity. Qed.
Lemma dflt_trailing : dflt_ok DEFAULT_TRAILING_VALUE_DECOR. Proof. split; reflexivity. Qed.
Lemma dflt_nil : dflt_ok ([], []). Proof. split; reflexivity. Qed.

(* ---- values only ------------------------------------------------------------------------------------------------------ *)
Lemma wf_values_only : forall v,
  (forall c, value_wf c v -> vwf v = true) /\ (forall line, pair_wf line (IValue v) -> vwf v = true).
Proof.
  induction v as [s r d|vals tr c0 d sp IH|items pre im dt d sp IH] using GrammarValueBase.value_ind'.
  - split; reflexivity.
  - assert (H : forall c, value_wf c (VArray vals tr c0 d sp) -> vwf (VArray vals tr c0 d sp) = true).
    { intros c (_ & _ & Hall). rewrite vwf_array. clear -IH Hall. induction vals as [|it tl IHl]; [reflexivity|].
      cbn [all_P forallb] in *. inversion IH as [|? ? H1 H2]; subst. destruct Hall as [Hit Hall].
      destruct it as [|e| |]; try contradiction. cbn [iwf Pit] in *. rewrite (proj1 H1 _ Hit), (IHl H2 Hall). reflexivity. }
    split; [exact H|]. intros line Hp. cbn [pair_wf] in Hp. eapply H, Hp.
  - assert (Hitems : forall line, all_P (fun kv => key_wf line (fst kv) /\ pair_wf line (snd kv)) items -> items_wf items = true).
    { intros line Hall. unfold items_wf. clear -IH Hall. induction items as [|[k it] tl IHl]; [reflexivity|].
      cbn [all_P forallb fst snd] in *. inversion IH as [|? ? H1 H2]; subst. destruct Hall as [[_ Hit] Hall].
      destruct it as [|e| |]; try contradiction. cbn [iwf Pit snd] in *. rewrite (proj2 H1 _ Hit), (IHl H2 Hall). reflexivity. }
    assert (H : forall c, value_wf c (VInline items pre im dt d sp) -> vwf (VInline items pre im dt d sp) = true).
    { intros c (_ & _ & _ & Hall). rewrite vwf_inline. eapply Hitems, Hall. }
    split; [exact H|]. intros line Hp. destruct dt.
    + cbn [pair_wf] in Hp. destruct Hp as (_ & _ & Hall). rewrite vwf_inline. eapply Hitems, Hall.
    + cbn [pair_wf] in Hp. eapply H, Hp.
Qed.
Lemma value_wf_vwf c v : value_wf c v -> vwf v = true.
Proof. apply wf_values_only. Qed.

(* ---- the statement -------------------------------------------------------------------------------------------------------- *)
Definition vden (d : nat) (v : value) (a : aval) : Prop := den a = absv v /\ aval_ok a = true /\ within d a = true.
Definition vtok (f : nat) (c : vctx) (d : nat) (v : value) (dflt : bytes * bytes) : Prop :=
  exists p t s a, encode_value f v dflt = p ++ t ++ s /\ slot_ok (pre_slot c) p /\ slot_ok (suf_slot c) s
                  /\ val_tok t a /\ vden d v a.

Definition IHf (f : nat) : Prop :=
  forall v c d dflt, value_size v < f -> value_wf c v -> value_lim d v -> dflt_ok dflt -> vtok f c d v dflt.

(* a token between the value's decor *)
Lemma vtok_intro f c d v dflt dd t a :
  vdecor_ok c dd -> dflt_ok dflt ->
  encode_value f v dflt = decor_prefix dd (fst dflt) ++ t ++ decor_suffix dd (snd dflt) ->
  val_tok t a -> vden d v a -> vtok f c d v dflt.
Proof.
  intros Hdec [Hd1 Hd2] E Ht Hden. apply vdecor_slots in Hdec. destruct Hdec as [Hp Hsu].
  exists (decor_prefix dd (fst dflt)), t, (decor_suffix dd (snd dflt)), a. split; [exact E|].
  split; [apply decor_prefix_ok; [exact Hp|apply ws_slot, Hd1]|]. split; [apply decor_suffix_ok; [exact Hsu|apply ws_slot, Hd2]|]. auto.
Qed.

Lemma scalar_val_tok t x : scalar_tok t x -> scalar_lim x ->
  exists a, val_tok t a /\ den a = abs_scalar x /\ aval_ok a = true /\ forall d, within d a = true.
Proof.
  intros Ht Hl. destruct x as [v|z|f|b|dt]; cbn [scalar_tok scalar_lim] in *.
  - exists (AStr v). repeat split; auto. apply v_string, Ht.
  - exists (AInt z). repeat split; auto. apply v_integer, Ht.
  - exists (AFloat f). repeat split; auto; [apply v_float, Ht|]. intro d. cbn [within]. destruct f as [n|n|n m e]; auto.
    rewrite Hl. reflexivity.
  - exists (ABool b). repeat split; auto. apply v_boolean, Ht.
  - exists (ADate dt). repeat split; auto. apply v_date_time, Ht.
Qed.

(* ---- arrays ------------------------------------------------------------------------------------------------------------------- *)
Definition elem_ok (f d : nat) (it : item) : Prop :=
  exists e, it = IValue e /\ value_size e < f /\ value_wf CArr e /\ value_lim (S d) e.

Lemma av_chain f d : IHf f -> forall tl e de,
  value_size e < f -> value_wf CArr e -> value_lim (S d) e -> dflt_ok de -> Forall (elem_ok f d) tl ->
  forall c, c = [] \/ c = [x2c] ->
  exists l, array_values_tok (encode_value f e de ++ enc_elems f false tl ++ c) l
            /\ map den l = absv e :: map absi tl /\ forallb aval_ok l = true /\ forallb (within (S d)) l = true.
Proof.
  intros IH. induction tl as [|it tl IHtl]; intros e de Hs Hw Hl Hd Htl c Hc.
  - destruct (IH e CArr (S d) de Hs Hw Hl Hd) as (p & t & s & a & E & Hp & Hsu & Ht & (D1 & D2 & D3)).
    exists [a]. cbn [enc_elems app map forallb]. rewrite E, D1, D2, D3. split; [|auto].
    rewrite <- !app_assoc. apply av_last; auto.
  - inversion Htl as [|? ? (e2 & -> & Hs2 & Hw2 & Hl2) Htl']; subst.
    destruct (IH e CArr (S d) de Hs Hw Hl Hd) as (p & t & s & a & E & Hp & Hsu & Ht & (D1 & D2 & D3)).
    destruct (IHtl e2 DEFAULT_VALUE_DECOR Hs2 Hw2 Hl2 dflt_value Htl' c Hc) as (l & Hav & M1 & M2 & M3).
    exists (a :: l). cbn [enc_elems map forallb absi]. rewrite E, D1, D2, D3, M1, M2, M3. split; [|auto].
    rewrite <- !app_assoc.
    apply av_more; auto.
Qed.

Lemma array_tok f : IHf f -> forall vals tr comma dd sp c d dflt,
  value_size (VArray vals tr comma dd sp) < S f -> value_wf c (VArray vals tr comma dd sp) ->
  value_lim d (VArray vals tr comma dd sp) -> dflt_ok dflt -> vtok (S f) c d (VArray vals tr comma dd sp) dflt.
Proof.
  intros IH vals tr comma dd sp c d dflt Hs (Hdec & Htr & Hall) (Hlim & Hlall) Hd.
  assert (Hel : Forall (elem_ok f d) vals).
  { apply all_P_Forall in Hall. apply all_P_Forall in Hlall. rewrite Forall_forall in Hall, Hlall.
    apply Forall_forall. intros it Hin. cbn [value_size] in Hs. pose proof (item_size_in vals it Hin) as Hsz.
    specialize (Hall it Hin). specialize (Hlall it Hin). destruct it as [|e| |]; try contradiction.
    exists e. cbn [item_size] in Hsz. repeat split; auto. lia. }
  assert (Wtr : wscn_tok (raw_encode tr [])) by (apply (raw_ok_enc SWscn), Htr).
  destruct vals as [|it tl].
  - apply (vtok_intro _ c d _ dflt dd ([x5b] ++ raw_encode tr [] ++ [x5d]) (AArr []) Hdec Hd).
    + rewrite enc_array. cbn [enc_elems app]. rewrite andb_false_r. cbn [app]. rewrite <- !app_assoc. reflexivity.
    + apply v_array_empty, Wtr.
    + split; [rewrite absv_array; reflexivity|]. split; [reflexivity|].
      cbn [within forallb]. rewrite andb_true_r. apply Nat.ltb_lt, Hlim.
  - inversion Hel as [|? ? (e & -> & Hse & Hwe & Hle) Hel']; subst.
    set (cm := if comma && negb false then [x2c] else []).
    assert (Hcm : cm = [] \/ cm = [x2c]) by (subst cm; destruct comma; cbn; auto).
    destruct (av_chain f d IH tl e DEFAULT_LEADING_VALUE_DECOR Hse Hwe Hle dflt_leading Hel' cm Hcm) as (l & Hav & M1 & M2 & M3).
    apply (vtok_intro _ c d _ dflt dd
             ([x5b] ++ (encode_value f e DEFAULT_LEADING_VALUE_DECOR ++ enc_elems f false tl ++ cm) ++ raw_encode tr [] ++ [x5d]) (AArr l) Hdec Hd).
    + rewrite enc_array. cbn [enc_elems app]. fold cm. rewrite <- !app_assoc. reflexivity.
    + apply v_array; assumption.
    + split; [cbn [den]; rewrite absv_array; cbn [map absi]; rewrite M1; reflexivity|]. split; [exact M2|].
      cbn [within]. rewrite M3, andb_true_r. apply Nat.ltb_lt, Hlim.
Qed.

(* ---- inline tables ---------------------------------------------------------------------------------------------------------------- *)
Definition child_ok (f d : nat) (pv : list key * value) : Prop :=
  fst pv <> [] /\ Forall (key_wf false) (fst pv) /\ value_size (snd pv) < f /\ value_wf CInl (snd pv)
  /\ value_lim (S d) (snd pv) /\ length (fst pv) + value_depth (snd pv) < LIMIT.
Definition child_rel (d : nat) (pv : list key * value) (pa : list bytes * aval) : Prop :=
  fst pa = ktexts (fst pv) /\ den (snd pa) = absv (snd pv) /\ aval_ok (snd pa) = true /\ within (S d) (snd pa) = true.

Lemma inline_key_shape kp : kp <> [] -> Forall (key_wf false) kp ->
  exists lp K ls, encode_key_path kp DEFAULT_INLINE_KEY_DECOR = lp ++ K ++ ls /\ ws_tok lp /\ ws_tok ls /\ key_tok K (ktexts kp).
Proof.
  intros Hne Hk.
  assert (Hm : Forall key_mid kp) by (eapply Forall_impl; [|exact Hk]; intros k; apply key_wf_mid).
  destruct (encode_key_path_shape kp DEFAULT_INLINE_KEY_DECOR Hne Hm) as (last & K & Hin & E & T).
  rewrite Forall_forall in Hk. destruct (Hk last Hin) as (_ & _ & [Hlp Hls]).
  exists (decor_prefix (k_leaf last) (fst DEFAULT_INLINE_KEY_DECOR)), K, (decor_suffix (k_leaf last) (snd DEFAULT_INLINE_KEY_DECOR)).
  split; [exact E|]. split; [apply (decor_prefix_ok SWs); [exact Hlp|reflexivity]|].
  split; [apply (decor_suffix_ok SWs); [exact Hls|reflexivity]|exact T].
Qed.

Lemma enc_kvs_S f len i kp e tl :
  enc_kvs f len (S i) ((kp, e) :: tl)
  = [x2c] ++ (encode_key_path kp DEFAULT_INLINE_KEY_DECOR ++ [x3d]
              ++ encode_value f e (if Nat.eqb (S i) (len - 1) then DEFAULT_TRAILING_VALUE_DECOR else DEFAULT_VALUE_DECOR)
              ++ enc_kvs f len (S (S i)) tl).
Proof. reflexivity. Qed.

Lemma enc_kvs_0 f len kp e tl :
  enc_kvs f len 0 ((kp, e) :: tl)
  = encode_key_path kp DEFAULT_INLINE_KEY_DECOR ++ [x3d]
    ++ encode_value f e (if Nat.eqb 0 (len - 1) then DEFAULT_TRAILING_VALUE_DECOR else DEFAULT_VALUE_DECOR)
    ++ enc_kvs f len 1 tl.
Proof. reflexivity. Qed.

Lemma ik_chain f d len : IHf f -> forall tl kp e i,
  child_ok f d (kp, e) -> Forall (child_ok f d) tl ->
  exists LP kt wend l,
    encode_key_path kp DEFAULT_INLINE_KEY_DECOR ++ [x3d]
    ++ encode_value f e (if Nat.eqb i (len - 1) then DEFAULT_TRAILING_VALUE_DECOR else DEFAULT_VALUE_DECOR)
    ++ enc_kvs f len (S i) tl
    = LP ++ kt ++ wend
    /\ ws_tok LP /\ ws_tok wend /\ inline_keyvals_tok kt l /\ Forall2 (child_rel d) ((kp, e) :: tl) l.
Proof.
  intros IH. induction tl as [|[kp2 e2] tl IHtl]; intros kp e i (Hne & Hk & Hs & Hw & Hl & Hlen) Htl; cbn [fst snd] in *.
  - destruct (inline_key_shape kp Hne Hk) as (lp & K & ls & Ek & Wlp & Wls & TK).
    set (dfl := if Nat.eqb i (len - 1) then DEFAULT_TRAILING_VALUE_DECOR else DEFAULT_VALUE_DECOR).
    assert (Hdf : dflt_ok dfl) by (subst dfl; destruct (Nat.eqb _ _); [apply dflt_trailing|apply dflt_value]).
    destruct (IH e CInl (S d) dfl Hs Hw Hl Hdf) as (p & t & s & a & E & Hp & Hsu & Ht & (D1 & D2 & D3)).
    exists lp, (K ++ ls ++ [x3d] ++ p ++ t), s, [(ktexts kp, a)]. cbn [enc_kvs]. rewrite Ek, E, app_nil_r.
    split; [rewrite <- !app_assoc; reflexivity|]. split; [exact Wlp|]. split; [exact Hsu|].
    split; [apply ik_last; assumption|]. constructor; [|constructor]. repeat split; assumption.
  - inversion Htl as [|? ? Hc2 Htl']; subst.
    destruct (inline_key_shape kp Hne Hk) as (lp & K & ls & Ek & Wlp & Wls & TK).
    set (dfl := if Nat.eqb i (len - 1) then DEFAULT_TRAILING_VALUE_DECOR else DEFAULT_VALUE_DECOR).
    assert (Hdf : dflt_ok dfl) by (subst dfl; destruct (Nat.eqb _ _); [apply dflt_trailing|apply dflt_value]).
    destruct (IH e CInl (S d) dfl Hs Hw Hl Hdf) as (p & t & s & a & E & Hp & Hsu & Ht & (D1 & D2 & D3)).
    destruct (IHtl kp2 e2 (S i) Hc2 Htl') as (LP2 & kt2 & wend2 & l2 & E2 & W1 & W2 & T2 & R2).
    exists lp, (K ++ ls ++ [x3d] ++ p ++ t ++ s ++ [x2c] ++ LP2 ++ kt2), wend2, ((ktexts kp, a) :: l2).
    rewrite enc_kvs_S, E2, Ek, E.
    split; [rewrite <- !app_assoc; reflexivity|]. split; [exact Wlp|]. split; [exact W2|].
    split; [apply ik_more; assumption|]. constructor; [|exact R2]. repeat split; assumption.
Qed.

Lemma Forall2_in_r {A B} (R : A -> B -> Prop) l1 l2 : Forall2 R l1 l2 -> forall b, In b l2 -> exists a, In a l1 /\ R a b.
Proof.
  induction 1 as [|a b l1 l2 Hab _ IH]; intros x Hin; [contradiction|]. destruct Hin as [<-|Hin].
  - exists a. split; [left; reflexivity|exact Hab].
  - destruct (IH x Hin) as (a' & Ha & Hr). exists a'. split; [right; exact Ha|exact Hr].
Qed.

(* every flattened entry of a well-formed inline table within the limits and of size at most f *)
Lemma children_ok f d items :
  all_P (fun kv => key_wf false (fst kv) /\ pair_wf false (snd kv)) items ->
  all_P (fun kv => pair_lim (S d) 1 (snd kv)) items -> ksz items <= f ->
  Forall (child_ok f d) (iflat [] items).
Proof.
  intros Hall Hlall Hs.
  apply (iflat_all false (fun n it => pair_lim (S d) n it /\ item_size it <= f) (fun p v => child_ok f d (p, v))); [| |exact Hall|].
  - intros n sub pre im dd sp [Hl Hsz]. cbn [pair_lim] in Hl. apply all_P_Forall in Hl.
    change (item_size (IValue (VInline sub pre im true dd sp))) with (S (value_size (VInline sub pre im true dd sp))) in Hsz.
    rewrite value_size_inline in Hsz. rewrite Forall_forall in Hl. apply Forall_forall. intros [k it] Hin.
    split; [exact (Hl _ Hin)|]. pose proof (ksz_in _ _ _ Hin). cbn [snd]. lia.
  - intros p v Hv Hne Hp Hw [Hl Hsz]. rewrite (pair_lim_plain _ _ _ Hv) in Hl. destruct Hl as [Hl1 Hl2]. cbn [item_size] in Hsz.
    split; [exact Hne|]. split; [exact Hp|]. split; [cbn [snd]; lia|]. split; [exact Hw|]. split; [exact Hl2|exact Hl1].
  - apply all_P_Forall in Hlall. rewrite Forall_forall in Hlall. apply Forall_forall. intros [k it] Hin.
    split; [exact (Hlall _ Hin)|]. pose proof (ksz_in _ _ _ Hin). cbn [snd]. lia.
Qed.

(* the data: the paths and values of the flattened entries, folded, give the table *)
Lemma inline_den f d items pre im dt dd sp l :
  NoDup (kkeys items) -> all_P (fun kv => key_wf false (fst kv) /\ pair_wf false (snd kv)) items -> S d < LIMIT ->
  Forall (child_ok f d) (iflat [] items) -> Forall2 (child_rel d) (iflat [] items) l ->
  vden d (VInline items pre im dt dd sp) (AInl l).
Proof.
  intros Hnd Hall Hlim Hch R.
  assert (Epaths : map (fun pa => (fst pa, den (snd pa))) l = dflat dval (dforest items)).
  { rewrite <- iflat_dflat. symmetry.
    apply Forall2_map_eq. apply (Forall2_impl (child_rel d)); [|exact R].
    intros pv pa (A1 & A2 & _). unfold pv_abs. rewrite A1, A2. reflexivity. }
  pose proof (dforest_wf false items Hnd Hall) as Hwf.
  split; [|split].
  - cbn [den]. rewrite Epaths, (dfold_run dval _ Hwf). rewrite (dforest_abs false items Hall), absv_inline. reflexivity.
  - cbn [aval_ok]. apply andb_true_iff. split.
    + apply forallb_forall. intros pa Hin. destruct (Forall2_in_r _ _ _ R pa Hin) as (pv & _ & (_ & _ & A3 & _)). exact A3.
    + assert (Eu : map (fun pa : list bytes * aval => (fst pa, tt)) l = dflat unit (dmapf (fun _ : dval => tt) (dforest items))).
      { rewrite (dmapf_flat (fun _ : dval => tt) _ Hwf), <- Epaths, map_map. reflexivity. }
      rewrite Eu, (dfold_run unit _ (dmapf_wf _ _ Hwf)). reflexivity.
  - cbn [within]. apply andb_true_iff. split; [apply Nat.ltb_lt, Hlim|].
    apply forallb_forall. intros pa Hin. destruct (Forall2_in_r _ _ _ R pa Hin) as (pv & Hinv & (A1 & A2 & A3 & A4)).
    rewrite A4, andb_true_r. apply Nat.ltb_lt. rewrite A1, A2. unfold ktexts. rewrite map_length.
    rewrite Forall_forall in Hch. destruct (Hch pv Hinv) as (_ & _ & _ & Hwv & _ & Hlen).
    rewrite <- (value_depth_ddepth _ (value_wf_vwf _ _ Hwv)). exact Hlen.
Qed.

Lemma inline_tok f : IHf f -> forall items pre im dt dd sp c d dflt,
  value_size (VInline items pre im dt dd sp) < S f -> value_wf c (VInline items pre im dt dd sp) ->
  value_lim d (VInline items pre im dt dd sp) -> dflt_ok dflt -> vtok (S f) c d (VInline items pre im dt dd sp) dflt.
Proof.
  intros IH items pre im dt dd sp c d dflt Hs (Hdec & Hpre & Hnd & Hall) (Hlim & Hlall) Hd.
  assert (Wpre : ws_tok (raw_encode pre [])) by (apply (raw_ok_enc SWs), Hpre).
  rewrite value_size_inline in Hs.
  assert (Eenc : encode_value (S f) (VInline items pre im dt dd sp) dflt
                 = decor_prefix dd (fst dflt) ++ [x7b] ++ raw_encode pre []
                   ++ enc_kvs f (length (iflat [] items)) 0 (iflat [] items) ++ [x7d] ++ decor_suffix dd (snd dflt)).
  { rewrite enc_inline. cbv zeta. rewrite value_size_inline, inline_values_eq by lia. reflexivity. }
  assert (Hch : Forall (child_ok f d) (iflat [] items)) by (apply children_ok; [exact Hall|exact Hlall|lia]).
  pose proof (fun l => inline_den f d items pre im dt dd sp l Hnd Hall Hlim Hch) as Hden.
  destruct (iflat [] items) as [|[kp e] tl].
  - apply (vtok_intro _ c d _ dflt dd ([x7b] ++ raw_encode pre [] ++ [x7d]) (AInl []) Hdec Hd).
    + rewrite Eenc. cbn [enc_kvs length app]. rewrite <- !app_assoc. reflexivity.
    + apply v_inline_empty, Wpre.
    + apply Hden. constructor.
  - inversion Hch as [|? ? Hc1 Hctl]; subst.
    destruct (ik_chain f d (length ((kp, e) :: tl)) IH tl kp e 0 Hc1 Hctl) as (LP & kt & wend & l & E & W1 & W2 & T & R).
    apply (vtok_intro _ c d _ dflt dd ([x7b] ++ (raw_encode pre [] ++ LP) ++ kt ++ wend ++ [x7d]) (AInl l) Hdec Hd).
    + rewrite Eenc, enc_kvs_0, E, <- !app_assoc. reflexivity.
    + apply v_inline; [apply ws_app; assumption|exact T|exact W2].
    + apply Hden, R.
Qed.

(* ---- all values -------------------------------------------------------------------------------------------------------------------- *)
Theorem value_tok_all : forall f, IHf f.
Proof.
  induction f as [|f IH]; intros v c d dflt Hs Hw Hl Hd; [lia|].
  destruct v as [x r dd|vals tr comma dd sp|items pre im dt dd sp].
  - destruct Hw as (Hr & Hlim & Hdec).
    destruct (scalar_val_tok _ x (scalar_text_tok x r Hr Hlim) Hlim) as (a & Ht & D1 & D2 & D3).
    apply (vtok_intro _ c d _ dflt dd _ a Hdec Hd (enc_scalar f x r dd dflt) Ht). split; [exact D1|]. split; [exact D2|apply D3].
  - apply array_tok; assumption.
  - apply inline_tok; assumption.
Qed.

(* Display for Value and the value of a key/value line *)
Theorem value_derivation v c d dflt :
  value_wf c v -> value_lim d v -> dflt_ok dflt ->
  exists p t s a, encode_value (S (value_size v)) v dflt = p ++ t ++ s /\ slot_ok (pre_slot c) p /\ slot_ok (suf_slot c) s
                  /\ val_tok t a /\ den a = absv v /\ aval_ok a = true /\ within d a = true.
Proof. intros Hw Hl Hd. apply (value_tok_all (S (value_size v)) v c d dflt); auto. Qed.
