(* Proofs/GrammarValueBase.v — C01/C02 layer L2, values: what relates a parsed toml_edit value
   to an abstract value of Spec/Syntax.v (`vrel`), well-formedness of parsed values (`vwf`:
   arrays and inline tables hold values only, hereditarily), depth of a value = depth of its
   datum, the bridge from C09's abstraction of inline tables (Proofs/DefsEquivInline.v) to
   data, and first-byte / follow-set facts of the value grammar. *)
From TV Require Import Base.Prelude Base.Winnow Gen.Consts Spec.Defs Spec.Syntax.
From TV Require Import Model.Tree Model.Parse.
From TV Require Import Proofs.DefsEquivBase Proofs.DefsEquivInline
                       Proofs.DepthBase Proofs.DepthValue Proofs.GrammarBase Proofs.GrammarParam.
From TV Require Import Proofs.KvFacts.
Require Import Lia ZifyBool ZifyN ZifyNat.

(* ================================================================================================ *)
(* well-formed values                                                                               *)
(* ================================================================================================ *)
Fixpoint vwf (v : value) : bool :=
  match v with
  | VScalar _ _ _ => true
  | VArray vals _ _ _ _ =>
    (fix go (l : list item) : bool := match l with [] => true | it :: tl => iwf it && go tl end) vals
  | VInline items _ _ _ _ _ =>
    (fix go (l : list (key * item)) : bool := match l with [] => true | (_, it) :: tl => iwf it && go tl end) items
  end
with iwf (it : item) : bool := match it with IValue v => vwf v | _ => false end.

Definition items_wf (m : kvs) : bool := forallb (fun kv => iwf (snd kv)) m.

Lemma vwf_array vals tr c d sp : vwf (VArray vals tr c d sp) = forallb iwf vals.
Proof.
  cbn [vwf]. induction vals as [|it tl IH]; [reflexivity|]. cbn [forallb]. rewrite <- IH. reflexivity.
Qed.
Lemma vwf_inline items pre im dt d sp : vwf (VInline items pre im dt d sp) = items_wf items.
Proof.
  cbn [vwf]. unfold items_wf. induction items as [|[k it] tl IH]; [reflexivity|]. cbn [forallb snd]. rewrite <- IH. reflexivity.
Qed.
Lemma vwf_decorate v p s : vwf (value_decorate v p s) = vwf v.
Proof. destruct v; reflexivity. Qed.
Lemma vwf_apply_raw v sp : vwf (apply_raw v sp) = vwf v.
Proof. unfold apply_raw. rewrite vwf_decorate. destruct v; reflexivity. Qed.

(* induction over the values reachable through IValue items *)
Section ValueInd.
  Variable P : value -> Prop.
  Definition Pit (it : item) : Prop := match it with IValue w => P w | _ => True end.
  Hypothesis Hs : forall s r d, P (VScalar s r d).
  Hypothesis Ha : forall vals tr c d sp, Forall Pit vals -> P (VArray vals tr c d sp).
  Hypothesis Hi : forall items pre im dt d sp,
    Forall (fun kv : key * item => Pit (snd kv)) items -> P (VInline items pre im dt d sp).

  Fixpoint value_ind' (v : value) : P v :=
    match v with
    | VScalar s r d => Hs s r d
    | VArray vals tr c d sp =>
      Ha vals tr c d sp
        ((fix go (l : list item) : Forall Pit l :=
            match l with
            | [] => Forall_nil _
            | it :: tl =>
              Forall_cons it
                (match it as it0 return Pit it0 with
                 | IValue v0 => value_ind' v0
                 | _ => I
                 end) (go tl)
            end) vals)
    | VInline items pre im dt d sp =>
      Hi items pre im dt d sp
        ((fix go (l : list (key * item)) : Forall (fun kv : key * item => Pit (snd kv)) l :=
            match l with
            | [] => Forall_nil _
            | (k, it) :: tl =>
              Forall_cons (k, it)
                (match it as it0 return Pit it0 with
                 | IValue v0 => value_ind' v0
                 | _ => I
                 end) (go tl)
            end) items)
    end.
End ValueInd.

Lemma Pit_wf (P : value -> Prop) it : iwf it = true -> Pit P it -> exists v, it = IValue v /\ vwf v = true /\ P v.
Proof. destruct it as [|v| |]; try discriminate. intros H1 H2. exists v. auto. Qed.

(* ---- depth of a value = depth of its datum --------------------------------------------------- *)
Lemma lmaxn_map {A B} (f : B -> nat) (g : A -> B) l : lmaxn f (map g l) = lmaxn (fun x => f (g x)) l.
Proof. induction l as [|x l IH]; [reflexivity|]. cbn [map lmaxn fold_right]. fold (lmaxn f (map g l)). rewrite IH. reflexivity. Qed.

Lemma lmaxn_ext_in {A} (f g : A -> nat) l : (forall x, In x l -> f x = g x) -> lmaxn f l = lmaxn g l.
Proof.
  induction l as [|x l IH]; intro H; [reflexivity|]. unfold lmaxn in *. cbn [fold_right].
  rewrite (H x) by (left; reflexivity). rewrite IH; [reflexivity|]. intros y Hy. apply H. right. exact Hy.
Qed.

Lemma lmaxn_lmax {A} (f : A -> nat) l : lmaxn f l = lmax f l.
Proof. reflexivity. Qed.

Lemma value_depth_ddepth v : vwf v = true -> value_depth v = ddepth (absv v).
Proof.
  induction v as [s r d|vals tr c d sp IH|items pre im dt d sp IH] using value_ind'; intro Hw.
  - destruct s; reflexivity.
  - rewrite value_depth_array, absv_array. cbn [ddepth]. f_equal. rewrite vwf_array in Hw.
    unfold items_depth. rewrite <- lmaxn_lmax, lmaxn_map. apply lmaxn_ext_in. intros it Hin.
    rewrite forallb_forall in Hw. rewrite Forall_forall in IH.
    destruct (Pit_wf _ it (Hw it Hin) (IH it Hin)) as (v & -> & Hv & Hp). cbn [item_depth absi]. apply Hp, Hv.
  - rewrite value_depth_inline, absv_inline. cbn [ddepth]. f_equal. rewrite vwf_inline in Hw. unfold items_wf in Hw.
    unfold kvs_depth. rewrite <- lmaxn_lmax, lmaxn_map. apply lmaxn_ext_in. intros [k it] Hin.
    rewrite forallb_forall in Hw. rewrite Forall_forall in IH.
    destruct (Pit_wf _ it (Hw _ Hin) (IH _ Hin)) as (v & -> & Hv & Hp). cbn [item_depth absi absi_kv fst snd]. apply Hp, Hv.
Qed.

(* ================================================================================================ *)
(* the relation between a parsed value and an abstract value                                        *)
(* ================================================================================================ *)
(* d = RecursionCheck counter at the value: same data; the abstract value is well-defined and within
   the limits; the tree value holds values only and is not a table made by dotted keys *)
Definition vrel (d : nat) (v : value) (a : aval) : Prop :=
  absv v = den a /\ aval_ok a = true /\ within d a = true /\ vwf v = true /\ closed_value v = true.

Definition irel (d : nat) (it : item) (a : aval) : Prop := exists v, it = IValue v /\ vrel d v a.

Lemma closed_decorate v p s : closed_value (value_decorate v p s) = closed_value v.
Proof. destruct v; reflexivity. Qed.
Lemma closed_apply_raw v sp : closed_value (apply_raw v sp) = closed_value v.
Proof. unfold apply_raw. rewrite closed_decorate. destruct v; reflexivity. Qed.

Lemma vrel_decorate d v a p s : vrel d v a -> vrel d (value_decorate v p s) a.
Proof. intros (H1 & H2 & H3 & H4 & H5). unfold vrel. rewrite absv_decorate, vwf_decorate, closed_decorate. auto. Qed.
Lemma vrel_apply_raw d v a sp : vrel d v a -> vrel d (apply_raw v sp) a.
Proof. intros (H1 & H2 & H3 & H4 & H5). unfold vrel. rewrite absv_apply_raw, vwf_apply_raw, closed_apply_raw. auto. Qed.

Lemma vrel_scalar d s a : abs_scalar s = den a -> aval_ok a = true -> within d a = true -> vrel d (scalar_value s) a.
Proof. intros H1 H2 H3. unfold vrel, scalar_value. cbn [absv vwf closed_value]. auto. Qed.

(* arrays *)
Lemma vrel_array d items l tr c dec sp :
  S d < LIMIT -> Forall2 (irel (S d)) items l -> vrel d (VArray items tr c dec sp) (AArr l).
Proof.
  intros Hd HF. unfold vrel. rewrite absv_array, vwf_array. cbn [den aval_ok within closed_value].
  assert (E : map absi items = map den l /\ forallb aval_ok l = true /\ forallb (within (S d)) l = true
              /\ forallb iwf items = true).
  { induction HF as [|it a items l (v & -> & H1 & H2 & H3 & H4 & H5) HF IH]; [auto|].
    destruct IH as (I1 & I2 & I3 & I4). cbn [map forallb absi iwf]. rewrite H1, H2, H3, H4, I1, I2, I3, I4. auto. }
  destruct E as (E1 & E2 & E3 & E4). rewrite E1, E2, E3, E4.
  assert (Hl : Nat.ltb (S d) LIMIT = true) by (apply Nat.ltb_lt; exact Hd). rewrite Hl. auto.
Qed.

(* ================================================================================================ *)
(* inline tables: from C09's abstraction (Proofs/DefsEquivInline.v) to data                         *)
(* ================================================================================================ *)
Lemma node_dval_tab kd items : node_dval (NTab kd items) = DTab (tree_dval items).
Proof. reflexivity. Qed.

Lemma items_wf_in m k it : items_wf m = true -> In (k, it) m -> iwf it = true.
Proof. unfold items_wf. rewrite forallb_forall. intros H Hin. apply (H (k, it) Hin). Qed.

(* the data of C09's spec tree for the items of an inline table under construction *)
Lemma absi_value_data v : vwf v = true -> node_dval (nmap absv (absi_value v)) = absv v.
Proof.
  induction v as [s r d|vals tr c d sp IH|items pre im dt d sp IH] using value_ind'; intro Hw; try reflexivity.
  destruct im; [|reflexivity].
  rewrite absi_value_implicit, nmap_tab, node_dval_tab, absv_inline. f_equal.
  rewrite vwf_inline in Hw. unfold tree_dval, smap, absi_items. rewrite !map_map.
  apply map_ext_in. intros [k it] Hin. unfold kmap, absi_kv. cbn [fst snd]. f_equal.
  rewrite Forall_forall in IH.
  destruct (Pit_wf _ it (items_wf_in _ _ _ Hw Hin) (IH _ Hin)) as (v & -> & Hv & Hp). cbn [absi_item absi]. apply Hp, Hv.
Qed.

Lemma absi_items_data m : items_wf m = true -> tree_dval (smap absv (absi_items m)) = map absi_kv m.
Proof.
  intro Hw. unfold tree_dval, smap, absi_items. rewrite !map_map. apply map_ext_in. intros [k it] Hin.
  unfold kmap, absi_kv. cbn [fst snd]. f_equal. pose proof (items_wf_in _ _ _ Hw Hin) as Hit.
  destruct it as [|v| |]; try discriminate. cbn [absi_item absi]. apply absi_value_data, Hit.
Qed.

(* ---- items_wf is preserved by the insertion loop and the span pass --------------------------- *)
Lemma items_wf_get m k k' it : items_wf m = true -> kv_get m k = Some (k', it) -> iwf it = true.
Proof. exact (kv_get_forallb (fun kv => iwf (snd kv)) m k k' it). Qed.
Lemma items_wf_push m k v : items_wf m = true -> iwf v = true -> items_wf (kv_push m k v) = true.
Proof. exact (kv_push_forallb (fun kv => iwf (snd kv)) m k v). Qed.
Lemma items_wf_set m k v : items_wf m = true -> iwf v = true -> items_wf (kv_set m k v) = true.
Proof. intros H1 H2. apply kv_set_forallb; [exact H1|]. intros; exact H2. Qed.

Lemma inline_insert_wf : forall path m dh pe k v m',
  items_wf m = true -> iwf v = true -> inline_insert m dh path pe k v = COk m' -> items_wf m' = true.
Proof.
  induction path as [|pk ptl IH]; intros m dh pe k v m' Hm Hv; cbn [inline_insert].
  - destruct (Bool.eqb dh pe); [discriminate|]. destruct (kv_get m (k_key k)); [discriminate|].
    intro E. injection E as <-. apply items_wf_push; assumption.
  - destruct (kv_get m (k_key pk)) as [[k' it]|] eqn:G.
    + pose proof (items_wf_get _ _ _ _ Hm G) as Hit. destruct it as [|val| |]; try discriminate Hit.
      destruct val as [s r d|vals tr c d sp|sub pre imp dt dec sp]; try discriminate.
      destruct (negb imp); [discriminate|]. cbn [iwf] in Hit. rewrite vwf_inline in Hit.
      destruct (inline_insert sub dt ptl pe k v) as [sub'| |] eqn:E; try discriminate.
      intro E2. injection E2 as <-. apply items_wf_set; [exact Hm|]. cbn [iwf]. rewrite vwf_inline.
      eapply IH; [exact Hit|exact Hv|exact E].
    + destruct (inline_insert [] true ptl pe k v) as [sub'| |] eqn:E; try discriminate.
      intro E2. injection E2 as <-. apply items_wf_push; [exact Hm|]. cbn [iwf]. rewrite vwf_inline.
      exact (IH [] true pe k v sub' eq_refl Hv E).
Qed.

Lemma table_from_pairs_loop_wf : forall pairs m m',
  items_wf m = true -> Forall (fun x : list key * (key * item) => iwf (snd (snd x)) = true) pairs ->
  table_from_pairs_loop m pairs = COk m' -> items_wf m' = true.
Proof.
  induction pairs as [|[path [k v]] tl IH]; intros m m' Hm Hp; cbn [table_from_pairs_loop].
  - intro E. injection E as <-. exact Hm.
  - inversion Hp as [|? ? Hx Htl]; subst. cbn [snd] in Hx.
    destruct (inline_insert m false path _ k v) as [m1| |] eqn:E; try discriminate.
    apply IH; [|exact Htl]. eapply inline_insert_wf; [exact Hm|exact Hx|exact E].
Qed.

Lemma kv_set_same_data m k k' it it' :
  kv_get m k = Some (k', it) -> absi it' = absi it -> map absi_kv (kv_set m k it') = map absi_kv m.
Proof. intros G H. apply (kv_set_map absi_kv _ _ _ _ _ G). unfold absi_kv. cbn [fst snd]. rewrite H. reflexivity. Qed.

Lemma inline_set_spans_data : forall path m e,
  map absi_kv (inline_set_spans m path e) = map absi_kv m /\
  (items_wf m = true -> items_wf (inline_set_spans m path e) = true).
Proof.
  induction path as [|k ptl IH]; intros m e; cbn [inline_set_spans]; [auto|].
  destruct (kv_get m (k_key k)) as [[k' it]|] eqn:G; [|auto].
  destruct it as [|val| |]; auto. destruct val as [s r d|vals tr c d sp|sub pre imp dt dec sp]; auto.
  destruct (IH sub e) as [I1 I2]. split.
  - eapply kv_set_same_data; [exact G|]. cbn [absi]. rewrite !absv_inline, I1. reflexivity.
  - intro Hm. pose proof (items_wf_get _ _ _ _ Hm G) as Hit. cbn [iwf] in Hit. rewrite vwf_inline in Hit.
    apply items_wf_set; [exact Hm|]. cbn [iwf]. rewrite vwf_inline. apply I2, Hit.
Qed.

Lemma inline_spans_pass_data : forall pairs m,
  map absi_kv (inline_spans_pass m pairs) = map absi_kv m /\
  (items_wf m = true -> items_wf (inline_spans_pass m pairs) = true).
Proof.
  unfold inline_spans_pass. induction pairs as [|[path [k v]] tl IH]; intros m; cbn [fold_left]; [auto|].
  destruct (IH (inline_set_spans m path (item_end v))) as [I1 I2].
  destruct (inline_set_spans_data path m (item_end v)) as [J1 J2]. split.
  - rewrite I1. exact J1.
  - intro Hm. apply I2, J2, Hm.
Qed.

(* ---- pairs of an inline table ------------------------------------------------------------------ *)
Definition prel (d : nat) (x : list key * (key * item)) (pa : list bytes * aval) : Prop :=
  fst pa = keys (fst x) ++ [k_key (fst (snd x))] /\ irel d (snd (snd x)) (snd pa).

Definition iprel (d : nat) (y : ipair) (pa : list bytes * aval) : Prop :=
  fst pa = keys (fst y) ++ [k_key (fst (snd y))] /\ vrel d (snd (snd y)) (snd pa).

Lemma prel_ipairs d pairs kvs : Forall2 (prel d) pairs kvs ->
  exists l, pairs = to_pairs l /\ Forall2 (iprel d) l kvs.
Proof.
  induction 1 as [|[path [k it]] pa pairs kvs [Hp (v & Hit & Hv)] HF (l & -> & Hl)].
  - exists []. split; [reflexivity|constructor].
  - cbn [fst snd] in *. subst it. exists ((path, (k, v)) :: l). split; [reflexivity|].
    constructor; [|exact Hl]. split; assumption.
Qed.

Lemma ipairs_prel d l kvs : Forall2 (iprel d) l kvs -> Forall2 (prel d) (to_pairs l) kvs.
Proof.
  induction 1 as [|[path [k v]] pa l kvs [Hp Hv] HF IH]; [constructor|].
  cbn [to_pairs map fst snd]. constructor; [|exact IH]. split; [exact Hp|]. exists v. auto.
Qed.

Lemma ipairs_closed d l kvs : Forall2 (iprel d) l kvs -> pairs_closed l.
Proof.
  unfold pairs_closed. induction 1 as [|y pa l0 kvs0 [_ (_ & _ & _ & _ & Hc)] _ IH]; constructor; assumption.
Qed.

Lemma ipairs_wf d l kvs : Forall2 (iprel d) l kvs ->
  Forall (fun x : list key * (key * item) => iwf (snd (snd x)) = true) (to_pairs l).
Proof.
  induction 1 as [|[path [k v]] pa l0 kvs0 [_ (_ & _ & _ & Hw & _)] _ IH]; cbn [to_pairs map]; constructor; assumption.
Qed.

Lemma ipairs_den d l kvs : Forall2 (iprel d) l kvs ->
  map (fun pv => (fst pv, den (snd pv))) kvs = map (pair_map absv) (erase_pairs l).
Proof.
  induction 1 as [|[path [k v]] [p a] l0 kvs0 [Hp (Ha & _)] _ IH]; [reflexivity|].
  cbn [erase_pairs map fst snd] in *. fold (erase_pairs l0). rewrite IH. unfold pair_map at 2. cbn [fst snd].
  rewrite Hp, Ha. reflexivity.
Qed.

Lemma ipairs_unit d l kvs : Forall2 (iprel d) l kvs ->
  map (fun pv : list bytes * aval => (fst pv, tt)) kvs = map (pair_map (fun _ : value => tt)) (erase_pairs l).
Proof.
  induction 1 as [|[path [k v]] [p a] l0 kvs0 [Hp _] _ IH]; [reflexivity|].
  cbn [erase_pairs map fst snd] in *. fold (erase_pairs l0). rewrite IH. unfold pair_map at 2. cbn [fst snd].
  rewrite Hp. reflexivity.
Qed.

(* the depth check of table_from_pairs is the limit of Spec/Syntax.v `within` *)
Lemma ipairs_checks d l kvs : Forall2 (iprel d) l kvs ->
  forallb (fun pv : list bytes * aval => Nat.ltb (length (fst pv) + ddepth (den (snd pv))) LIMIT && within d (snd pv)) kvs = true
  <-> (forall p k v, In (p, (k, v)) (to_pairs l) -> check_depth (length p + 1 + item_depth v) = false).
Proof.
  induction 1 as [|[path [k v]] [p a] l0 kvs0 [Hp (Ha & _ & Hwi & Hw & _)] _ IH].
  - split; [intros _ ? ? ? []|reflexivity].
  - cbn [fst snd] in *. cbn [forallb to_pairs map fst snd]. fold (to_pairs l0).
    assert (E : length p + ddepth (den a) = length path + 1 + item_depth (IValue v)).
    { rewrite Hp, app_length. unfold keys. rewrite map_length. cbn [length item_depth].
      rewrite (value_depth_ddepth v Hw), Ha. lia. }
    rewrite E, Hwi, andb_true_r. split.
    + intro H0. apply andb_true_iff in H0 as [H1 H2]. intros p' k' v' [Hin|Hin].
      * injection Hin as <- <- <-. apply check_depth_false. apply Nat.ltb_lt in H1. exact H1.
      * apply (proj1 IH H2 _ _ _ Hin).
    + intro H0. apply andb_true_iff. split.
      * apply Nat.ltb_lt. apply check_depth_false. apply (H0 path k (IValue v)). left. reflexivity.
      * apply (proj2 IH). intros p' k' v' Hin. apply (H0 p' k' v'). right. exact Hin.
Qed.

Lemma ipairs_aval_ok d l kvs : Forall2 (iprel d) l kvs ->
  forallb (fun pv : list bytes * aval => aval_ok (snd pv)) kvs = true.
Proof. induction 1 as [|y pa l0 kvs0 [_ (_ & Hok & _)] _ IH]; [reflexivity|]. cbn [forallb]. rewrite Hok, IH. reflexivity. Qed.

Section InlineBridge.
  Variable d : nat.
  Variable l : list ipair.
  Variable kvs : list (list bytes * aval).
  Hypothesis HF : Forall2 (iprel d) l kvs.

  (* what the insertion loop computes, in terms of the spec *)
  Lemma inline_loop_spec :
    match inline_run (erase_pairs l) with
    | Some T => exists m, table_from_pairs_loop [] (to_pairs l) = COk m /\ absi_items m = T /\ items_wf m = true
    | None => exists c, table_from_pairs_loop [] (to_pairs l) = CErr c
    end.
  Proof.
    pose proof (inline_loop_sim l [] eq_refl (ipairs_closed _ _ _ HF)) as H. unfold inline_run.
    change (absi_items []) with (@nil (bytes * node value)) in H.
    destruct (inline_fold [] (erase_pairs l)) as [T| |]; cbn [simi] in H; [|exact H|contradiction].
    destruct H as (m & H1 & H2 & _). exists m. split; [exact H1|]. split; [exact H2|].
    exact (table_from_pairs_loop_wf _ [] m eq_refl (ipairs_wf _ _ _ HF) H1).
  Qed.

  Lemma inline_ok_iff :
    (match inline_run (map (fun pv : list bytes * aval => (fst pv, tt)) kvs) with Some _ => true | None => false end) = true
    <-> exists T, inline_run (erase_pairs l) = Some T.
  Proof.
    rewrite (ipairs_unit _ _ _ HF), inline_run_smap. destruct (inline_run (erase_pairs l)) as [T|]; cbn [option_map].
    - split; [eauto|reflexivity].
    - split; [discriminate|intros [T E]; discriminate].
  Qed.

  Lemma inline_den T m :
    inline_run (erase_pairs l) = Some T -> absi_items m = T -> items_wf m = true ->
    den (AInl kvs) = DTab (map absi_kv m).
  Proof.
    intros E Hm Hw. cbn [den]. rewrite (ipairs_den _ _ _ HF), inline_run_smap, E. cbn [option_map]. f_equal.
    rewrite <- Hm. apply absi_items_data, Hw.
  Qed.

  (* soundness: a successful table_from_pairs yields a value related to the abstract inline table *)
  Lemma inline_bridge_sound d0 pre v :
    d = S d0 -> S d0 < LIMIT -> table_from_pairs (to_pairs l) pre = TmOk v -> vrel d0 v (AInl kvs).
  Proof.
    intros Ed Hd H. unfold table_from_pairs in H.
    destruct (table_from_pairs_loop_d [] (to_pairs l)) as [m| |] eqn:E; try discriminate. injection H as <-.
    pose proof (DepthValue.loop_d_ok_checks _ _ _ E) as Hchk. apply DepthValue.loop_d_ok_agrees in E.
    pose proof inline_loop_spec as Hs. destruct (inline_run (erase_pairs l)) as [T|] eqn:Er.
    2:{ destruct Hs as [c Hc]. rewrite Hc in E. discriminate. }
    destruct Hs as (m0 & E0 & Hm & Hw). rewrite E0 in E. injection E as ->.
    destruct (inline_spans_pass_data (to_pairs l) m) as [I1 I2].
    unfold vrel. rewrite absv_inline, vwf_inline, I1. cbn [closed_value negb]. split; [|split; [|split; [|split]]].
    - symmetry. apply (inline_den T m Er Hm Hw).
    - cbn [aval_ok]. rewrite (ipairs_aval_ok _ _ _ HF). apply andb_true_iff. split; [reflexivity|].
      apply (proj2 inline_ok_iff). eauto.
    - cbn [within]. apply andb_true_iff. split; [apply Nat.ltb_lt; exact Hd|].
      rewrite <- Ed. apply (proj2 (ipairs_checks _ _ _ HF)). exact Hchk.
    - apply I2, Hw.
    - reflexivity.
  Qed.

  (* completeness: a well-defined inline table within the limits is built *)
  Lemma inline_bridge_complete d0 pre :
    d = S d0 -> aval_ok (AInl kvs) = true -> within d0 (AInl kvs) = true ->
    exists v, table_from_pairs (to_pairs l) pre = TmOk v.
  Proof.
    intros Ed Hok Hwi. cbn [aval_ok] in Hok. apply andb_true_iff in Hok as [_ Hok].
    apply (proj1 inline_ok_iff) in Hok as [T Er].
    cbn [within] in Hwi. apply andb_true_iff in Hwi as [_ Hwi]. rewrite <- Ed in Hwi.
    pose proof (proj1 (ipairs_checks _ _ _ HF) Hwi) as Hchk.
    pose proof inline_loop_spec as Hs. rewrite Er in Hs. destruct Hs as (m & E & _).
    unfold table_from_pairs. rewrite (DepthValue.loop_d_agrees _ _ Hchk), E. eauto.
  Qed.
End InlineBridge.
