(* Proofs/DeLocWalk.v — one passage through the located deserializer (Model/DeLoc.v) for every property of its
   errors.  A property comes in three strengths, one for each place an error can be looked at:
     Pi s   inside the node s, before the node's own wrapper has seen it;
     Po s   what T::deserialize(node s) returns;
     Pl s   once the access that handed s out (or s's own wrapper) has attached its span.
   `closed` lists what the plumbing (wrap, addkey, under, on_key at the places de_loc applies them) must preserve;
   `walk_de_loc` then holds of the whole deserializer.  G / Gk: what is assumed of a node / of a table entry's key. *)
From TV Require Import Base.Prelude Model.Datetime Spec.SerdeData Model.De Model.SerdeSpanned.
From TV Require Import Model.DeLoc Proofs.DeLocBase.

(* the steps at which an error raised AT the key of the i-th entry e of the table es can sit *)
Definition key_step (es : list entry) (i : nat) (e : entry) (st : step) : Prop :=
  st = SKey i (en_key e) \/ st = SPos i (en_key e) \/ (st = SVar (en_key e) /\ es = [e]).

Set Implicit Arguments.
Record closed (c : cfg) (G : stree -> Prop) (Gk : entry -> Prop) (Pi Po Pl : stree -> lerr -> Prop) : Prop := {
  cl_arr : forall sp xs, G (NArr sp xs) -> Forall G xs;
  cl_tab : forall sp es, G (NTab sp es) -> Forall (fun e => Gk e /\ G (en_val e)) es;
  cl_fresh : forall s e, fresh_nospan e -> Pi s e;
  cl_li : forall s e, Pl s e -> Pi s e;
  cl_oi : forall s e, Po s e -> Pi s e;
  cl_lo : forall s e, Pl s e -> Po s e;
  (* the kind check of a Date / Time and the paths the model does not follow: raised outside every wrapper *)
  cl_bare : forall s k, k = KDtKind \/ k = KUnmodelled -> Po s (mkErr k None [] [] false);
  cl_unmodelled : forall s, Pl s (mkErr KUnmodelled None [] [] false);
  cl_here : forall s k, G s -> Pl s (mkErr k (span_of s) [] [] false);
  cl_wrap : forall A s (r : lres A), G s -> errs (Pi s) r -> errs (Pl s) (wrap (span_of s) r);
  cl_wrap_always : forall A s (r : lres A),
      opt_overwrite c = true -> G s -> errs (Pi s) r -> errs (Pl s) (wrap_always (span_of s) r);
  cl_value : forall A sp es i e (r : lres A), nth_error es i = Some e -> Gk e -> G (en_val e) ->
      errs (Pi (en_val e)) r -> errs (Pl (NTab sp es)) (value_of_entry i e r);
  cl_key : forall A sp es i e (r : lres A), nth_error es i = Some e -> Gk e ->
      errs fresh_nospan r -> errs (Pl (NTab sp es)) (key_of_entry i e r);
  cl_at_key : forall sp es i e st k, nth_error es i = Some e -> Gk e -> key_step es i e st ->
      Pl (NTab sp es) (mkErr k (en_kspan e) [] [st] true);
  cl_idx : forall A sp xs i x (r : lres A), nth_error xs i = Some x -> errs (Pl x) r -> errs (Pl (NArr sp xs)) (under (SIdx i) r);
  cl_var : forall A sp e (r : lres A), errs (Pl (en_val e)) r -> errs (Pl (NTab sp [e])) (under (SVar (en_key e)) r);
  cl_pos : forall A sp es i e (r : lres A), nth_error es i = Some e -> errs (Pl (en_val e)) r ->
      errs (Pl (NTab sp es)) (under (SPos i (en_key e)) r)
}.
Unset Implicit Arguments.

Section Walk.
  Variable c : cfg.
  Variable G : stree -> Prop.
  Variable Gk : entry -> Prop.
  Variables Pi Po Pl : stree -> lerr -> Prop.
  Hypothesis CL : closed c G Gk Pi Po Pl.

  Lemma in_of_fresh {A} s (r : lres A) : errs fresh_nospan r -> errs (Pi s) r.
  Proof. intro H. eapply errs_impl; [exact H|apply (cl_fresh CL)]. Qed.
  Lemma in_of_located {A} s (r : lres A) : errs (Pl s) r -> errs (Pi s) r.
  Proof. intro H. eapply errs_impl; [exact H|apply (cl_li CL)]. Qed.
  Lemma in_of_out {A} s (r : lres A) : errs (Po s) r -> errs (Pi s) r.
  Proof. intro H. eapply errs_impl; [exact H|apply (cl_oi CL)]. Qed.
  Lemma out_of_located {A} s (r : lres A) : errs (Pl s) r -> errs (Po s) r.
  Proof. intro H. eapply errs_impl; [exact H|apply (cl_lo CL)]. Qed.

  Definition entries_ok (es : list entry) : Prop := Forall (fun e => Gk e /\ G (en_val e)) es.

  (* `de` deserializes well at t *)
  Definition wok (de : ty -> stree -> lres sval) (t : ty) : Prop := forall x, G x -> errs (Po x) (de t x).

  (* an element handed out by ArraySeqAccess / newtype_variant_seed: its errors come back with its span *)
  Lemma handed_out de t x : wok de t -> G x -> errs (Pl x) (wrap (span_of x) (de t x)).
  Proof. intros Hde Hx. apply (cl_wrap CL); [exact Hx|apply in_of_out; apply Hde; exact Hx]. Qed.

  Section Visitors.
    Variable de : ty -> stree -> lres sval.

    Lemma elem_at sp t pre x xs : wok de t -> G x ->
      errs (Pl (NArr sp (pre ++ x :: xs))) (under (SIdx (length pre)) (wrap (span_of x) (de t x))).
    Proof. intros Hde Hx. apply (cl_idx CL) with (x := x); [apply nth_pre|apply handed_out; assumption]. Qed.

    Lemma W_seq_elems sp t xs : wok de t -> forall pre, Forall G xs ->
      errs (Pl (NArr sp (pre ++ xs))) (seq_elems de t xs (length pre)).
    Proof.
      intro Hde. induction xs as [|x xs IH]; intros pre F; [exact I|]. inversion F; subst. cbn [seq_elems].
      apply errs_lbind; [apply elem_at; assumption|]. intros v _. apply errs_lbind; [|intros vs _; exact I].
      specialize (IH (pre ++ [x])). rewrite <- app_assoc, app_length, Nat.add_1_r in IH. apply IH. assumption.
    Qed.

    (* positional visitors: the visitor's own invalid_length has no span yet *)
    Lemma W_pos_elems {A} (proj : A -> ty) sp l : Forall (fun a => wok de (proj a)) l -> forall xs pre, Forall G xs ->
      errs (Pi (NArr sp (pre ++ xs))) (pos_elems de proj l xs (length pre)).
    Proof.
      induction l as [|a l IH]; intros Fl xs pre F; [exact I|]. inversion Fl; subst. cbn [pos_elems].
      destruct xs as [|x xs]; [apply in_of_fresh; apply (@fresh_raise (list sval))|]. inversion F; subst.
      apply errs_lbind; [apply in_of_located; apply elem_at; assumption|]. intros v _. apply errs_lbind; [|intros vs _; exact I].
      specialize (IH H2 xs (pre ++ [x])). rewrite <- app_assoc, app_length, Nat.add_1_r in IH. apply IH. assumption.
    Qed.

    (* when the array is long enough the visitor has no error of its own *)
    Lemma W_pos_elems_full {A} (proj : A -> ty) sp l : Forall (fun a => wok de (proj a)) l -> forall xs pre,
      Forall G xs -> length l <= length xs -> errs (Pl (NArr sp (pre ++ xs))) (pos_elems de proj l xs (length pre)).
    Proof.
      induction l as [|a l IH]; intros Fl xs pre F Len; [exact I|]. inversion Fl; subst. cbn [pos_elems].
      destruct xs as [|x xs]; [cbn in Len; lia|]. inversion F; subst. cbn [length] in Len.
      apply errs_lbind; [apply elem_at; assumption|]. intros v _. apply errs_lbind; [|intros vs _; exact I].
      specialize (IH H2 xs (pre ++ [x])). rewrite <- app_assoc, app_length, Nat.add_1_r in IH. apply IH; [assumption|lia].
    Qed.

    Lemma value_at {A} sp pre e es (r : lres A) : Gk e -> G (en_val e) -> errs (Po (en_val e)) r ->
      errs (Pl (NTab sp (pre ++ e :: es))) (value_of_entry (length pre) e r).
    Proof. intros Hk Hv H. apply (cl_value CL); [apply nth_pre|exact Hk|exact Hv|apply in_of_out; exact H]. Qed.

    Lemma W_map_entries sp kt vt es : wok de vt -> forall pre, entries_ok es ->
      errs (Pl (NTab sp (pre ++ es))) (map_entries de kt vt es (length pre)).
    Proof.
      intro Hde. induction es as [|e es IH]; intros pre F; [exact I|]. inversion F as [|? ? [Hk Hv] F']; subst.
      cbn [map_entries]. apply errs_lbind; [apply (cl_key CL); [apply nth_pre|exact Hk|apply fresh_de_key]|].
      intros k _. apply errs_lbind; [apply value_at; [exact Hk|exact Hv|apply Hde; exact Hv]|].
      intros v _. apply errs_lbind; [|intros ps _; exact I].
      specialize (IH (pre ++ [e])). rewrite <- app_assoc, app_length, Nat.add_1_r in IH. apply IH. exact F'.
    Qed.

    Lemma W_struct_scan sp fs denied es : Forall (fun ft => wok de (snd ft)) fs -> forall pre seen, entries_ok es ->
      errs (Pi (NTab sp (pre ++ es))) (struct_scan de fs denied es (length pre) seen).
    Proof.
      intro Ff. induction es as [|e es IH]; intros pre seen F; [exact I|]. inversion F as [|? ? [Hk Hv] F']; subst.
      cbn [struct_scan].
      assert (IH' : forall seen', errs (Pi (NTab sp (pre ++ e :: es))) (struct_scan de fs denied es (S (length pre)) seen')).
      { intro seen'. specialize (IH (pre ++ [e]) seen'). rewrite <- app_assoc, app_length, Nat.add_1_r in IH. apply IH. exact F'. }
      apply find_name_errs.
      - destruct denied; [|apply IH'].
        apply in_of_located. apply (cl_key CL); [apply nth_pre|exact Hk|apply (@fresh_raise (list (nat * sval)))].
      - intros j t Hin. rewrite Forall_forall in Ff. specialize (Ff _ Hin). cbn [snd] in Ff.
        destruct (existsb (Nat.eqb j) seen); [apply in_of_fresh; apply (@fresh_raise (list (nat * sval)))|].
        apply errs_lbind; [apply in_of_located; apply value_at; [exact Hk|exact Hv|apply Ff; exact Hv]|].
        intros v _. apply errs_lbind; [apply IH'|]. intros r _. exact I.
    Qed.

    Lemma W_struct_finish s fs : forall j got, errs (Pi s) (struct_finish fs j got).
    Proof.
      induction fs as [|[f t] fs IH]; intros j got; [exact I|]. cbn [struct_finish].
      apply errs_lbind.
      - destruct (assoc_nat j got); [exact I|]. destruct t; try (apply in_of_fresh; apply (@fresh_raise sval)). exact I.
      - intros v _. apply errs_lbind; [apply IH|]. intros vs _. exact I.
    Qed.

    Lemma W_struct_from_table sp fs denied es : Forall (fun ft => wok de (snd ft)) fs -> entries_ok es ->
      errs (Pi (NTab sp es)) (struct_from_table de fs denied es).
    Proof.
      intros Ff F. unfold struct_from_table. apply errs_lbind; [exact (W_struct_scan sp fs denied es Ff [] [] F)|].
      intros got _. apply W_struct_finish.
    Qed.

    (* the components of a tuple variant written as a table *)
    Definition indexed_in (es : list entry) (xs : list (nat * entry)) : Prop :=
      Forall (fun ie => nth_error es (fst ie) = Some (snd ie) /\ G (en_val (snd ie))) xs.

    Lemma W_pos_entries sp es ts : Forall (wok de) ts -> forall xs, indexed_in es xs -> length ts <= length xs ->
      errs (Pl (NTab sp es)) (pos_entries de ts xs).
    Proof.
      induction ts as [|t ts IH]; intros Ft xs F Len; [exact I|]. inversion Ft; subst. cbn [pos_entries].
      destruct xs as [|[i e] xs]; [cbn in Len; lia|]. inversion F as [|? ? [Hn Hv] F']; subst. cbn [fst snd length] in *.
      apply errs_lbind; [apply (cl_pos CL); [exact Hn|apply handed_out; assumption]|].
      intros v _. apply errs_lbind; [apply IH; [assumption|assumption|lia]|]. intros vs _. exact I.
    Qed.
  End Visitors.

  Lemma W_index_entries sp es : forall pre n, entries_ok es ->
    errs (Pl (NTab sp (pre ++ es))) (index_entries (length pre) n es) /\
    (forall xs, index_entries (length pre) n es = LOk xs -> indexed_in (pre ++ es) xs).
  Proof.
    induction es as [|e es IH]; intros pre n F.
    - split; [exact I|]. intros xs E. injection E as <-. constructor.
    - inversion F as [|? ? [Hk Hv] F']; subst. cbn [index_entries].
      assert (Hbad : errs (Pl (NTab sp (pre ++ e :: es)))
                       (under (SPos (length pre) (en_key e)) (on_key (@raise_at (list (nat * entry)) KOther (en_kspan e))))).
      { apply (cl_at_key CL) with (i := length pre); [apply nth_pre|exact Hk|right; left; reflexivity]. }
      destruct (parse_usize (en_key e)) as [j|]; [|split; [exact Hbad|discriminate]].
      destruct (j =? n)%N; [|split; [exact Hbad|discriminate]].
      specialize (IH (pre ++ [e]) (n + 1)%N F'). rewrite <- app_assoc, app_length, Nat.add_1_r in IH. cbn [app] in IH.
      destruct IH as [H1 H2]. split; [apply errs_lmap; exact H1|].
      intros xs E. destruct (index_entries (S (length pre)) (n + 1) es) as [ys|]; [|discriminate].
      injection E as <-. constructor; [|apply H2; reflexivity]. cbn [fst snd]. split; [apply nth_pre|exact Hv].
  Qed.

  Lemma first_extra_at names es i e : forall pre, first_extra_key names es (length pre) = Some (i, e) -> entries_ok es ->
    nth_error (pre ++ es) i = Some e /\ Gk e.
  Proof.
    induction es as [|e0 es IH]; intros pre E F; [discriminate|]. inversion F as [|? ? [Hk _] F']; subst.
    cbn [first_extra_key] in E. destruct (mem_bytes (en_key e0) names).
    - specialize (IH (pre ++ [e0])). rewrite <- app_assoc, app_length, Nat.add_1_r in IH. exact (IH E F').
    - injection E as <- <-. split; [apply nth_pre|exact Hk].
  Qed.

  Lemma W_de_datetime s : G s -> errs (Pl s) (de_datetime_l s).
  Proof.
    intro H. unfold de_datetime_l. destruct s as [sp x|sp xs|sp es].
    - destruct x; try (apply (cl_wrap CL (NLeaf sp _)); [exact H|apply in_of_fresh; apply (@fresh_raise datetime)]).
      apply (cl_wrap CL (NLeaf sp (VDatetime d))); [exact H|apply in_of_fresh; apply fresh_de_dt].
    - apply (cl_wrap CL (NArr sp xs)); [exact H|apply in_of_fresh; apply (@fresh_raise datetime)].
    - pose proof (cl_tab CL _ _ H) as F.
      destruct es as [|e es]; [apply (cl_wrap CL (NTab sp [])); [exact H|apply in_of_fresh; apply (@fresh_raise datetime)]|].
      inversion F as [|? ? [Hk Hv] _]; subst. apply (cl_wrap CL (NTab sp (e :: es))); [exact H|]. apply in_of_located.
      apply errs_lbind.
      + apply (cl_key CL) with (es := e :: es); [reflexivity|exact Hk|].
        destruct (bytes_eqb (en_key e) DT_FIELD); [exact I|apply (@fresh_raise unit)].
      + intros _ _. apply (cl_value CL) with (es := e :: es); [reflexivity|exact Hk|exact Hv|].
        apply in_of_located. apply (cl_wrap CL); [exact Hv|]. apply in_of_fresh.
        destruct (en_val e) as [sp' x'|sp' xs'|sp' es']; try apply (@fresh_raise datetime).
        destruct x'; try apply (@fresh_raise datetime). apply fresh_de_dt.
  Qed.

  (* ---- the deserializer ---- *)
  Theorem walk_de_loc t : forall s, G s -> errs (Po s) (de_loc c t s).
  Proof.
    induction t using ty_ind2 with (Q := fun var => forall y, G y -> errs (Pl y) (de_payload c var y)); intros s Hs;
      try (cbn [de_loc]; apply out_of_located; apply (cl_wrap CL); [exact Hs|apply in_of_fresh; apply fresh_visit_scalar]).
    - (* datetime *)
      cbn [de_loc]. apply errs_lbind; [apply out_of_located; apply W_de_datetime; exact Hs|]. intros d _.
      destruct (dt_kind_ok k d); [exact I|]. apply (cl_bare CL). left. reflexivity.
    - (* option *)
      cbn [de_loc]. apply out_of_located.
      destruct (opt_overwrite c) eqn:Seed; [apply (cl_wrap_always CL); [exact Seed|exact Hs|]|apply (cl_wrap CL); [exact Hs|]];
        apply in_of_out; apply errs_lmap; apply IHt; exact Hs.
    - (* seq *)
      cbn [de_loc]. apply out_of_located. apply (cl_wrap CL); [exact Hs|].
      destruct s as [sp x|sp xs|sp es]; try (apply in_of_fresh; apply (@fresh_raise sval)).
      apply in_of_located. apply errs_lmap. exact (W_seq_elems (de_loc c) sp t xs IHt [] (cl_arr CL _ _ Hs)).
    - (* tuple *)
      cbn [de_loc]. apply out_of_located. apply (cl_wrap CL); [exact Hs|].
      destruct s as [sp x|sp xs|sp es]; try (apply in_of_fresh; apply (@fresh_raise sval)).
      apply errs_lmap. exact (W_pos_elems (de_loc c) (fun t' => t') sp ts H xs [] (cl_arr CL _ _ Hs)).
    - (* map *)
      cbn [de_loc]. apply out_of_located. apply (cl_wrap CL); [exact Hs|].
      destruct s as [sp x|sp xs|sp es]; try (apply in_of_fresh; apply (@fresh_raise sval)).
      + destruct x; apply in_of_fresh; apply (@fresh_raise sval).
      + apply in_of_located. apply errs_lmap. exact (W_map_entries (de_loc c) sp t1 t2 es IHt2 [] (cl_tab CL _ _ Hs)).
    - (* struct *)
      cbn [de_loc]. destruct (private_name n); [apply (cl_bare CL); right; reflexivity|].
      apply out_of_located. apply (cl_wrap CL); [exact Hs|]. destruct s as [sp x|sp xs|sp es].
      + destruct x; apply in_of_fresh; apply (@fresh_raise sval).
      + apply errs_lmap. exact (W_pos_elems (de_loc c) (fun ft => snd ft) sp fs H xs [] (cl_arr CL _ _ Hs)).
      + apply errs_lmap. apply W_struct_from_table; [exact H|exact (cl_tab CL _ _ Hs)].
    - (* newtype *)
      cbn [de_loc]. apply out_of_located. apply (cl_wrap CL); [exact Hs|]. apply in_of_out. apply errs_lmap. apply IHt. exact Hs.
    - (* tuple struct *)
      cbn [de_loc]. apply out_of_located. apply (cl_wrap CL); [exact Hs|].
      destruct s as [sp x|sp xs|sp es]; try (apply in_of_fresh; apply (@fresh_raise sval)).
      apply errs_lmap. exact (W_pos_elems (de_loc c) (fun t' => t') sp ts H xs [] (cl_arr CL _ _ Hs)).
    - (* enum *)
      cbn [de_loc]. apply out_of_located. apply (cl_wrap CL); [exact Hs|]. destruct s as [sp x|sp xs|sp es].
      + destruct x; try (apply in_of_located; apply (cl_here CL (NLeaf sp _)); exact Hs).
        apply find_name_errs; [apply in_of_fresh; apply (@fresh_raise sval)|].
        intros j a _. destruct a; try exact I; apply in_of_fresh; apply (@fresh_raise sval).
      + apply in_of_located. apply (cl_here CL (NArr sp xs)). exact Hs.
      + destruct es as [|e [|e' es]]; try (apply in_of_located; apply (cl_here CL (NTab sp _)); exact Hs).
        pose proof (cl_tab CL _ _ Hs) as F. inversion F as [|? ? [Hk Hv] _]; subst. apply in_of_located.
        apply find_name_errs.
        * apply (cl_at_key CL) with (i := 0); [reflexivity|exact Hk|right; right; split; reflexivity].
        * intros j var Hin. rewrite Forall_forall in H. specialize (H (en_key e, var) Hin). cbn [snd] in H.
          apply errs_lmap. apply (cl_var CL). apply H. exact Hv.
    - (* unit variant *)
      cbn [de_payload]. destruct (sempty_container s); [exact I|]. apply (cl_here CL). exact Hs.
    - (* newtype variant *)
      cbn [de_payload]. apply handed_out; [exact IHt|exact Hs].
    - (* tuple variant *)
      cbn [de_payload]. destruct s as [sp x|sp xs|sp es].
      + apply (cl_here CL (NLeaf sp x)). exact Hs.
      + destruct (Nat.eqb (length xs) (length ts)) eqn:E; [|apply (cl_here CL (NArr sp xs)); exact Hs].
        apply Nat.eqb_eq in E. apply errs_lmap.
        apply (W_pos_elems_full (de_loc c) (fun t' => t') sp ts H xs [] (cl_arr CL _ _ Hs)). lia.
      + destruct (W_index_entries sp es [] 0%N (cl_tab CL _ _ Hs)) as [H1 H2]. cbn [app length] in *.
        apply errs_lbind; [exact H1|]. intros xs E.
        destruct (Nat.eqb (length xs) (length ts)) eqn:E2; [|apply (cl_here CL (NTab sp es)); exact Hs].
        apply Nat.eqb_eq in E2. apply errs_lmap. apply W_pos_entries; [exact H|apply H2; exact E|lia].
    - (* struct variant *)
      cbn [de_payload]. destruct s as [sp x|sp xs|sp es].
      + destruct x; try (apply (cl_wrap CL (NLeaf sp _)); [exact Hs|apply in_of_fresh; apply (@fresh_raise sval)]).
        apply (cl_unmodelled CL).
      + apply (cl_wrap CL (NArr sp xs)); [exact Hs|]. apply errs_lmap.
        exact (W_pos_elems (de_loc c) (fun ft => snd ft) sp fs H xs [] (cl_arr CL _ _ Hs)).
      + pose proof (cl_tab CL _ _ Hs) as F. destruct (first_extra_key (map fst fs) es 0) as [[i e]|] eqn:FE.
        * apply (cl_wrap CL (NTab sp es)); [exact Hs|]. apply in_of_located.
          destruct (first_extra_at (map fst fs) es i e [] FE F) as [Hn Hk].
          apply (cl_at_key CL) with (i := i); [exact Hn|exact Hk|left; reflexivity].
        * apply (cl_wrap CL (NTab sp es)); [exact Hs|]. apply errs_lmap. apply W_struct_from_table; assumption.
  Qed.
End Walk.
