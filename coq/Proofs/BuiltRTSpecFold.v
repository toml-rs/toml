(* Proofs/BuiltRTSpecFold.v — C06, documents, specification side: the statements the printer emits for a
   tree (for every table: its key/value lines, then its sub-tables and arrays of tables, each under its
   header, in order) define, by the rules of Spec/Defs.v, exactly that tree with the values of every
   table before its sub-tables.  These trees are those of Proofs/WFSemDoc.v without tables made of dotted
   keys, and the theorem is the one proved there. *)
From TV Require Import Base.Prelude Spec.Defs.
From TV Require Import Model.Datetime Model.Numbers Model.Tree Model.Build.
From TV Require Import Proofs.DefsEquivSpec Proofs.WFSemDoc.
From TV Require Proofs.DefsEquivKv.
Require Import Lia.

(* ---- statements and result of an abstract tree ----------------------------------------------------------
   The tree as the printer sees it: a table whose `[header]` is left out (`hid`: marked implicit and without
   key/value lines of its own) is only mentioned by the headers of what is below it. *)
Inductive snode : Type :=
| SVal (a : aval)
| STbl (hid : bool) (l : list (bytes * snode))
| SAot (ls : list (list (bytes * snode))).

Fixpoint forget (n : snode) : anode :=
  match n with
  | SVal a => AVal a
  | STbl _ l => ATbl (map (fun kv => (fst kv, forget (snd kv))) l)
  | SAot ls => AAot (map (map (fun kv => (fst kv, forget (snd kv)))) ls)
  end.
Definition forget_entries (l : list (bytes * snode)) : list (bytes * anode) := map (fun kv => (fst kv, forget (snd kv))) l.

Definition kv_stmts (l : list (bytes * snode)) : list (stmt aval) :=
  flat_map (fun kv => match snd kv with SVal a => [SKeyVal [fst kv] a] | _ => [] end) l.

Fixpoint node_stmts (P : list bytes) (n : snode) : list (stmt aval) :=
  match n with
  | SVal _ => []
  | STbl hid l => (if hid then [] else [SHeader P])
                  ++ (kv_stmts l ++ flat_map (fun kv => node_stmts (P ++ [fst kv]) (snd kv)) l)
  | SAot ls =>
    flat_map (fun l => SArrHeader P :: (kv_stmts l ++ flat_map (fun kv => node_stmts (P ++ [fst kv]) (snd kv)) l)) ls
  end.
Definition body_stmts (P : list bytes) (l : list (bytes * snode)) : list (stmt aval) :=
  kv_stmts l ++ flat_map (fun kv => node_stmts (P ++ [fst kv]) (snd kv)) l.

Definition kv_res (l : list (bytes * snode)) : stree aval :=
  flat_map (fun kv => match snd kv with SVal a => [(fst kv, NVal a)] | _ => [] end) l.

Fixpoint node_res (n : snode) : list (node aval) :=
  match n with
  | SVal _ => []
  | STbl hid l => [NTab (if hid then KSuper else KHeader)
                        (kv_res l ++ flat_map (fun kv => map (fun r => (fst kv, r)) (node_res (snd kv))) l)]
  | SAot [] => []
  | SAot ls => [NAot (map (fun l => kv_res l ++ flat_map (fun kv => map (fun r => (fst kv, r)) (node_res (snd kv))) l) ls)]
  end.
Definition body_res (l : list (bytes * snode)) : stree aval :=
  kv_res l ++ flat_map (fun kv => map (fun r => (fst kv, r)) (node_res (snd kv))) l.

Lemma node_stmts_tbl P hid l : node_stmts P (STbl hid l) = (if hid then [] else [SHeader P]) ++ body_stmts P l.
Proof. reflexivity. Qed.
Lemma node_stmts_aot P ls : node_stmts P (SAot ls) = flat_map (fun l => SArrHeader P :: body_stmts P l) ls.
Proof. reflexivity. Qed.
Lemma node_res_tbl hid l : node_res (STbl hid l) = [NTab (if hid then KSuper else KHeader) (body_res l)].
Proof. reflexivity. Qed.
Lemma node_res_aot ls : node_res (SAot ls) = match ls with [] => [] | _ => [NAot (map body_res ls)] end.
Proof. destruct ls; reflexivity. Qed.

Lemma snode_strong (P : snode -> Prop) :
  (forall a, P (SVal a)) ->
  (forall hid l, Forall (fun kv => P (snd kv)) l -> P (STbl hid l)) ->
  (forall ls, Forall (Forall (fun kv => P (snd kv))) ls -> P (SAot ls)) ->
  forall n, P n.
Proof.
  intros H1 H2 H3. fix IH 1. intros [a|hid l|ls].
  - apply H1.
  - apply H2. induction l as [|[k n] l IHl]; constructor; [apply IH|exact IHl].
  - apply H3. induction ls as [|l ls IHls]; constructor; [|exact IHls].
    induction l as [|[k n] l IHl]; constructor; [apply IH|exact IHl].
Qed.

(* well-formed: the keys of every table are distinct; a table without header has no key/value line and
   something is printed below it *)
Inductive wf_node : snode -> Prop :=
| WV a : wf_node (SVal a)
| WT hid l : NoDup (map fst l) -> Forall wf_node (map snd l) ->
             (hid = true -> kv_stmts l = [] /\ body_stmts [] l <> []) -> wf_node (STbl hid l)
| WA ls : Forall (fun l => NoDup (map fst l) /\ Forall wf_node (map snd l)) ls -> wf_node (SAot ls).
Definition wf_entries (l : list (bytes * snode)) : Prop := NoDup (map fst l) /\ Forall wf_node (map snd l).

Lemma wf_node_strong (Pn : snode -> Prop) :
  (forall a, Pn (SVal a)) ->
  (forall hid l, NoDup (map fst l) -> Forall wf_node (map snd l) -> Forall Pn (map snd l) ->
                 (hid = true -> kv_stmts l = [] /\ body_stmts [] l <> []) -> Pn (STbl hid l)) ->
  (forall ls, Forall (fun l => NoDup (map fst l) /\ Forall Pn (map snd l)) ls -> Pn (SAot ls)) ->
  forall n, wf_node n -> Pn n.
Proof.
  intros H1 H2 H3. fix IH 2. intros n Hn. destruct Hn as [a | hid l Hnd Hl Hh | ls Hls].
  - apply H1.
  - apply H2; [exact Hnd|exact Hl| |exact Hh]. induction Hl; constructor; [apply IH; assumption|assumption].
  - apply H3. induction Hls as [|l ls [Hnd Hl] _ IHls]; constructor; [|exact IHls].
    split; [exact Hnd|]. induction Hl; constructor; [apply IH; assumption|assumption].
Qed.

Section Fold.
  Local Notation T := (stree aval).

  Lemma kv_res_keys l : forall k, In k (map fst (kv_res l)) -> In k (map fst l).
  Proof.
    unfold kv_res. induction l as [|[k0 n] l IH]; intros k H; [exact H|]. cbn [flat_map fst snd] in H.
    rewrite map_app in H. apply in_app_or in H as [H|H]; [|right; apply IH, H].
    destruct n; cbn in H; try contradiction. destruct H as [<-|[]]. left. reflexivity.
  Qed.

  Lemma spush_app (C : T) k n : spush C k n = C ++ [(k, n)].
  Proof. reflexivity. Qed.
End Fold.

(* ---- shifting statements under a prefix ------------------------------------------------------------------------- *)
Definition shift (P : list bytes) (s : stmt aval) : stmt aval :=
  match s with
  | SHeader p => SHeader (P ++ p)
  | SArrHeader p => SArrHeader (P ++ p)
  | SKeyVal p v => SKeyVal p v
  end.

(* a run of statements that begins with a header does not look at the current section *)
Definition starts_hdr (l : list (stmt aval)) : Prop :=
  match l with SHeader _ :: _ | SArrHeader _ :: _ => True | _ => False end.

Lemma starts_hdr_shift P l : starts_hdr l -> starts_hdr (map (shift P) l).
Proof. destruct l as [|[p|p|p v] l]; cbn; auto. Qed.

(* ---- the statements of a tree define the tree ---------------------------------------------------------------------
   These trees among those of Proofs/WFSemDoc.v: statements, result and well-formedness are the same, and what
   the strict rules accept the rules of the code accept with the same result. *)
Fixpoint emb (n : snode) : WFSemDoc.snode aval :=
  match n with
  | SVal a => SV a
  | STbl hid l => ST hid (map (fun kv => (fst kv, emb (snd kv))) l)
  | SAot ls => SA (map (map (fun kv => (fst kv, emb (snd kv)))) ls)
  end.
Definition emb_entries (l : list (bytes * snode)) : sbody aval := map (fun kv => (fst kv, emb (snd kv))) l.

Lemma emb_keys l : map fst (emb_entries l) = map fst l.
Proof. unfold emb_entries. rewrite map_map. reflexivity. Qed.
Lemma emb_nodes l : map snd (emb_entries l) = map emb (map snd l).
Proof. unfold emb_entries. rewrite !map_map. reflexivity. Qed.

Lemma emb_lines l : line_stmts aval (emb_entries l) = kv_stmts l.
Proof.
  unfold line_stmts, dpart, WFSem.dflat, kv_stmts. induction l as [|[k n] l IH]; [reflexivity|].
  cbn [emb_entries map flat_map fst snd]. rewrite flat_map_app, map_app. fold (emb_entries l). rewrite IH.
  destruct n; reflexivity.
Qed.
Lemma emb_dpart_nil l : kv_stmts l = [] -> dpart aval (emb_entries l) = [].
Proof.
  unfold dpart, kv_stmts. induction l as [|[k n] l IH]; [reflexivity|]. cbn [emb_entries map flat_map fst snd].
  destruct n; cbn [emb dpart_node app]; [discriminate|exact IH|exact IH].
Qed.

Lemma emb_body_stmts_if P l :
  Forall (fun kv => forall P, node_secs aval P (emb (snd kv)) = node_stmts P (snd kv)) l ->
  WFSemDoc.body_stmts aval P (emb_entries l) = body_stmts P l.
Proof.
  intro H. unfold WFSemDoc.body_stmts, body_stmts. rewrite emb_lines. f_equal.
  unfold secs. induction H as [|[k n] l Hn _ IH]; [reflexivity|]. cbn [emb_entries map flat_map fst snd]. rewrite Hn. f_equal. exact IH.
Qed.
Lemma emb_node_stmts : forall n P, node_secs aval P (emb n) = node_stmts P n.
Proof.
  apply (snode_strong (fun n => forall P, node_secs aval P (emb n) = node_stmts P n)).
  - reflexivity.
  - intros hid l IH P. cbn [emb]. fold (emb_entries l). rewrite node_secs_ST, node_stmts_tbl, (emb_body_stmts_if P l IH). reflexivity.
  - intros ls IH P. cbn [emb]. rewrite node_secs_SA, node_stmts_aot.
    induction IH as [|l ls Hl _ IHls]; [reflexivity|]. cbn [map flat_map]. fold (emb_entries l). rewrite (emb_body_stmts_if P l Hl), IHls. reflexivity.
Qed.
Lemma emb_body_stmts P l : WFSemDoc.body_stmts aval P (emb_entries l) = body_stmts P l.
Proof. apply emb_body_stmts_if, Forall_forall. intros kv _. apply emb_node_stmts. Qed.

(* a value is the one kind of entry that its table holds in its lines and not in a section below them *)
Lemma emb_lres l : lres aval (emb_entries l) = kv_res l.
Proof.
  unfold lres, kv_res. induction l as [|[k n] l IH]; [reflexivity|]. cbn [emb_entries map flat_map fst snd]. fold (emb_entries l).
  rewrite IH. destruct n; reflexivity.
Qed.
Lemma emb_bres_if l :
  Forall (fun kv => forall k, sres1 aval (k, emb (snd kv)) = map (fun r => (k, r)) (node_res (snd kv))) l ->
  bres aval (emb_entries l) = body_res l.
Proof.
  intro H. unfold bres, body_res. rewrite emb_lres. f_equal.
  unfold sres. induction H as [|[k n] l Hn _ IH]; [reflexivity|]. cbn [emb_entries map flat_map fst snd]. fold (emb_entries l).
  cbn [snd] in Hn. rewrite IH, <- (Hn k). reflexivity.
Qed.
Lemma emb_node_res : forall n k, sres1 aval (k, emb n) = map (fun r => (k, r)) (node_res n).
Proof.
  apply (snode_strong (fun n => forall k, sres1 aval (k, emb n) = map (fun r => (k, r)) (node_res n))).
  - reflexivity.
  - intros hid l IH k. unfold sres1. cbn [emb fst snd]. fold (emb_entries l).
    rewrite node_res_ST, node_res_tbl, (emb_bres_if l IH). reflexivity.
  - intros ls IH k. unfold sres1. cbn [emb fst snd]. rewrite node_res_SA, node_res_aot.
    assert (E : map (bres aval) (map emb_entries ls) = map body_res ls).
    { induction IH as [|l ls Hl _ IHls]; [reflexivity|]. cbn [map]. rewrite (emb_bres_if l Hl), IHls. reflexivity. }
    unfold emb_entries in E. rewrite <- E. destruct ls; reflexivity.
Qed.
Lemma emb_bres l : bres aval (emb_entries l) = body_res l.
Proof. apply emb_bres_if, Forall_forall. intros kv _. apply emb_node_res. Qed.

Lemma emb_wf_entries_if l :
  NoDup (map fst l) -> Forall (fun n => swf aval (emb n)) (map snd l) -> swf_body aval (emb_entries l).
Proof. intros Hnd Hl. split; [rewrite emb_keys; exact Hnd|]. rewrite emb_nodes. apply Forall_map, Hl. Qed.

Lemma emb_wf : forall n, wf_node n -> swf aval (emb n).
Proof.
  apply wf_node_strong.
  - intro a. constructor.
  - intros hid l Hnd _ IH Hh. cbn [emb]. fold (emb_entries l). destruct (emb_wf_entries_if l Hnd IH) as [H1 H2].
    constructor; [exact H1|exact H2|]. intro E. destruct (Hh E) as [Hkv Hne]. split; [apply emb_dpart_nil, Hkv|].
    intro Es. apply Hne. rewrite <- emb_body_stmts. unfold WFSemDoc.body_stmts. rewrite emb_lines, Hkv, Es. reflexivity.
  - intros ls IH. cbn [emb]. constructor. apply Forall_map. eapply Forall_impl; [|exact IH].
    intros l [Hnd Hl]. exact (emb_wf_entries_if l Hnd Hl).
Qed.

(* a whole document: the statements of the root table's entries, from the empty state *)
Theorem doc_fold l : wf_entries l ->
  exists cur', spec_fold false sstate0 (body_stmts [] l) = ROk (body_res l, cur').
Proof.
  intros [Hnd Hl].
  assert (Hw : swf_body aval (emb_entries l)).
  { apply emb_wf_entries_if; [exact Hnd|]. eapply Forall_impl; [|exact Hl]. exact emb_wf. }
  pose proof (body_defines aval _ Hw) as E. unfold run in E. rewrite emb_body_stmts, emb_bres in E.
  destruct (spec_fold true sstate0 (body_stmts [] l)) as [[t c]| |] eqn:Et; try discriminate. injection E as ->.
  exists c. rewrite DefsEquivKv.spec_fold_strict_code; rewrite Et; [reflexivity|discriminate].
Qed.
