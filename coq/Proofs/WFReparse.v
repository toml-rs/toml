(* Proofs/WFReparse.v — WF backbone applied to parsed documents: if the despanned tree of a parsed document is
   well-formed and Display's data `abs_doc_of` is the document's data, the printed text is accepted again and
   decodes to the same data.  Both premises are decidable (`wfdoc_b`, `stree_eqb`): the theorem can be run as a
   certified check on any document; Proofs/WFParse*.v discharge them for all parsed documents of the covered class. *)
From TV Require Import Base.Prelude Spec.Defs Spec.Syntax Spec.WF.
From TV Require Import Model.Tree Model.Document Model.Encode.
From TV Require Import Proofs.GrammarBase Proofs.PrintBackBase.
From TV Require Import Proofs.WFBool Proofs.WFBoolSound Proofs.WFTree Proofs.WFPrintTop.
Require Import Lia NArith ZArith.

(* ---- deciding equality of data trees ------------------------------------------------------------------------------------ *)
Fixpoint dval_eqb (a b : dval) {struct a} : bool :=
  match a, b with
  | DStr x, DStr y => bytes_eqb x y
  | DInt x, DInt y => Z.eqb x y
  | DFloat x, DFloat y => fval_eqb x y
  | DBool x, DBool y => Bool.eqb x y
  | DDate x, DDate y => datetime_eqb x y
  | DArr l, DArr m =>
    (fix go (l m : list dval) {struct l} : bool :=
       match l, m with
       | [], [] => true
       | x :: l', y :: m' => dval_eqb x y && go l' m'
       | _, _ => false
       end) l m
  | DTab l, DTab m =>
    (fix go (l m : list (bytes * dval)) {struct l} : bool :=
       match l, m with
       | [], [] => true
       | (k, x) :: l', (k', y) :: m' => bytes_eqb k k' && dval_eqb x y && go l' m'
       | _, _ => false
       end) l m
  | _, _ => false
  end.

Lemma dval_ind' (P : dval -> Prop) :
  (forall s, P (DStr s)) -> (forall z, P (DInt z)) -> (forall f, P (DFloat f)) -> (forall b, P (DBool b)) -> (forall d, P (DDate d)) ->
  (forall l, Forall P l -> P (DArr l)) -> (forall l, Forall (fun kv => P (snd kv)) l -> P (DTab l)) -> forall v, P v.
Proof.
  intros H1 H2 H3 H4 H5 H6 H7. fix IH 1. intros [s|z|f|b|d|l|l]; [apply H1|apply H2|apply H3|apply H4|apply H5| |].
  - apply H6. induction l; constructor; [apply IH|assumption].
  - apply H7. induction l as [|[k x] l IHl]; constructor; [apply IH|assumption].
Qed.

Lemma dval_eqb_eq : forall a b, dval_eqb a b = true -> a = b.
Proof.
  induction a as [s|z|f|b0|d|l IH|l IH] using dval_ind'; intros [s'|z'|f'|b'|d'|m|m] H; cbn [dval_eqb] in H; try discriminate.
  - apply bytes_eqb_eq in H. congruence.
  - apply Z.eqb_eq in H. congruence.
  - apply fval_eqb_eq in H. congruence.
  - apply Bool.eqb_prop in H. congruence.
  - apply datetime_eqb_eq in H. congruence.
  - f_equal. revert m H. induction IH as [|x l Hx _ IHl]; intros [|y m] H; try discriminate; [reflexivity|].
    apply andb_true_iff in H as [H1 H2]. rewrite (Hx _ H1), (IHl _ H2). reflexivity.
  - f_equal. revert m H. induction IH as [|[k x] l Hx _ IHl]; intros [|[k' y] m] H; try discriminate; [reflexivity|].
    apply andb_true_iff in H as [H H3]. apply andb_true_iff in H as [H1 H2]. apply bytes_eqb_eq in H1. cbn [snd] in Hx.
    rewrite H1, (Hx _ H2), (IHl _ H3). reflexivity.
Qed.

Definition kind_eqb (a b : kind) : bool :=
  match a, b with KSuper, KSuper | KHeader, KHeader | KDotted, KDotted => true | _, _ => false end.
Fixpoint node_eqb (a b : node dval) {struct a} : bool :=
  match a, b with
  | NVal x, NVal y => dval_eqb x y
  | NTab k l, NTab k' m =>
    kind_eqb k k' &&
    (fix go (l m : list (bytes * node dval)) {struct l} : bool :=
       match l, m with
       | [], [] => true
       | (key, x) :: l', (key', y) :: m' => bytes_eqb key key' && node_eqb x y && go l' m'
       | _, _ => false
       end) l m
  | NAot es, NAot fs =>
    (fix goe (es fs : list (list (bytes * node dval))) {struct es} : bool :=
       match es, fs with
       | [], [] => true
       | l :: es', m :: fs' =>
         (fix go (l m : list (bytes * node dval)) {struct l} : bool :=
            match l, m with
            | [], [] => true
            | (key, x) :: l', (key', y) :: m' => bytes_eqb key key' && node_eqb x y && go l' m'
            | _, _ => false
            end) l m && goe es' fs'
       | _, _ => false
       end) es fs
  | _, _ => false
  end.
Definition stree_eqb (a b : stree dval) : bool := node_eqb (NTab KHeader a) (NTab KHeader b).

Lemma node_ind' (P : node dval -> Prop) :
  (forall v, P (NVal v)) -> (forall k l, Forall (fun kn => P (snd kn)) l -> P (NTab k l)) ->
  (forall es, Forall (Forall (fun kn => P (snd kn))) es -> P (NAot es)) -> forall n, P n.
Proof.
  intros H1 H2 H3. fix IH 1. intros [v|k l|es]; [apply H1| |].
  - apply H2. induction l as [|[key x] l IHl]; constructor; [apply IH|assumption].
  - apply H3. induction es as [|l es IHe]; constructor; [|assumption].
    induction l as [|[key x] l IHl]; constructor; [apply IH|assumption].
Qed.

Lemma node_eqb_eq : forall a b, node_eqb a b = true -> a = b.
Proof.
  assert (L : forall l : list (bytes * node dval), Forall (fun kn => forall b, node_eqb (snd kn) b = true -> snd kn = b) l ->
              forall m, (fix go (l m : list (bytes * node dval)) {struct l} : bool :=
                           match l, m with
                           | [], [] => true
                           | (key, x) :: l', (key', y) :: m' => bytes_eqb key key' && node_eqb x y && go l' m'
                           | _, _ => false
                           end) l m = true -> l = m).
  { induction 1 as [|[k x] l Hx _ IHl]; intros [|[k' y] m] H; try discriminate; [reflexivity|].
    apply andb_true_iff in H as [H H3]. apply andb_true_iff in H as [H1 H2]. apply bytes_eqb_eq in H1. cbn [snd] in Hx.
    rewrite H1, (Hx _ H2), (IHl _ H3). reflexivity. }
  induction a as [v|k l IH|es IH] using node_ind'; intros [v'|k' m|fs] H; cbn [node_eqb] in H; try discriminate.
  - apply dval_eqb_eq in H. congruence.
  - apply andb_true_iff in H as [H1 H2]. rewrite (L l IH m H2). destruct k, k'; try discriminate; reflexivity.
  - f_equal. revert fs H. induction IH as [|l es Hl _ IHe]; intros [|m fs] H; try discriminate; [reflexivity|].
    apply andb_true_iff in H as [H1 H2]. rewrite (L l Hl m H1), (IHe _ H2). reflexivity.
Qed.
Lemma stree_eqb_eq a b : stree_eqb a b = true -> a = b.
Proof. intro H. apply node_eqb_eq in H. congruence. Qed.

(* ---- the certified check ------------------------------------------------------------------------------------------------- *)
Theorem reparse_of_wf s d r t :
  parse_document s = POk d -> tbl_despan s (doc_root d) = Some r -> raw_despan s (doc_trailing d) = Some t ->
  WFdoc r t -> abs_doc_of r = abs_doc d ->
  print_doc s d = Some (display_document r t)
  /\ exists d', parse_document (display_document r t) = POk d' /\ abs_doc d' = abs_doc d.
Proof.
  intros _ Er Et Hw Ha. split; [unfold print_doc; rewrite Er, Et; reflexivity|].
  destruct (WF_print_parse r t Hw) as (d' & P & A). exists d'. split; [exact P|congruence].
Qed.

Definition reparse_check (s : bytes) (d : doc) : bool :=
  match tbl_despan s (doc_root d), raw_despan s (doc_trailing d) with
  | Some r, Some t => wfdoc_b r t && stree_eqb (abs_doc_of r) (abs_doc d)
  | _, _ => false
  end.

Theorem reparse_checked s d :
  parse_document s = POk d -> reparse_check s d = true ->
  exists o d', print_doc s d = Some o /\ parse_document o = POk d' /\ abs_doc d' = abs_doc d.
Proof.
  intros Hp Hc. unfold reparse_check in Hc. destruct (tbl_despan s (doc_root d)) as [r|] eqn:Er; [|discriminate].
  destruct (raw_despan s (doc_trailing d)) as [t|] eqn:Et; [|discriminate]. apply andb_true_iff in Hc as [H1 H2].
  destruct (reparse_of_wf s d r t Hp Er Et (wfdoc_b_sound _ _ H1) (stree_eqb_eq _ _ H2)) as (Eo & d' & P & A).
  exists (display_document r t), d'. auto.
Qed.
