(* Proofs/WFOrderBase.v — sections in Display's order, part 1.
   `Bb t P a`: the sections of a table that carry a position of their own, each as (position, own statements) —
   the own statements (`own_b`: header, then the key/value lines) depending on the header path only through its key
   texts.  When the sections without a position print nothing (`hp`: they are implicit and hold no lines), what
   Display prints (Proofs/WFReplay.v `replay_stmts`) is the concatenation of the own statements in the order of
   the positions: `replay_sorted`. *)
From TV Require Import Base.Prelude Spec.Defs Spec.Syntax Spec.WF.
From TV Require Import Model.Tree Model.Encode.
From TV Require Import Proofs.PrintBackSort.
From TV Require Import Proofs.WFSemDoc Proofs.WFPrintKey Proofs.WFTree Proofs.WFPrintDoc Proofs.WFReplay.
From TV Require Import Proofs.KvFacts.
Require Import Lia NArith Sorting.Sorted Sorting.Permutation.

Local Notation section := (tbl * list key * bool)%type.
Notation ent := (N * list (stmt dval))%type.

(* the own statements of a section at the header path with key texts P *)
Definition own_b (t : tbl) (P : list bytes) (a : bool) : list (stmt dval) :=
  (if (match P with [] => false | _ => a || negb (t_implicit t && no_lines t) end)
   then [if a then SArrHeader P else SHeader P] else [])
  ++ line_stmts dval (sb_tbl t).

Lemma own_abs_b t path a : own_abs (t, path, a) = own_b t (ktexts path) a.
Proof.
  unfold own_abs, own_b, own_hdr, hdr_printed. cbn [fst snd]. destruct path as [|k path]; [reflexivity|]. cbn [ktexts map]. reflexivity.
Qed.

(* ---- the positioned sections ------------------------------------------------------------------------------------------- *)
Definition own_e (t : tbl) (P : list bytes) (a : bool) : list ent :=
  if t_dotted t then [] else match t_position t with Some q => [(q, own_b t P a)] | None => [] end.

Fixpoint Bb (t : tbl) (P : list bytes) (a : bool) {struct t} : list ent :=
  match t with
  | Tbl items _ _ dt pos _ =>
    (if dt then [] else match pos with Some q => [(q, own_b t P a)] | None => [] end)
    ++ flat_map (fun kv => match snd kv with
                           | ITable sub => Bb sub (P ++ [k_key (fst kv)]) false
                           | IAot ts _ => flat_map (fun e => Bb e (P ++ [k_key (fst kv)]) true) ts
                           | _ => []
                           end) items
  end.
Definition Bit (P : list bytes) (kv : key * item) : list ent :=
  match snd kv with
  | ITable sub => Bb sub (P ++ [k_key (fst kv)]) false
  | IAot ts _ => flat_map (fun e => Bb e (P ++ [k_key (fst kv)]) true) ts
  | _ => []
  end.
Definition BbI (items : list (key * item)) (P : list bytes) : list ent := flat_map (Bit P) items.
Lemma Bb_eq t P a : Bb t P a = own_e t P a ++ BbI (t_items t) P.
Proof. destruct t; reflexivity. Qed.
Lemma BbI_app a b P : BbI (a ++ b) P = BbI a P ++ BbI b P.
Proof. apply flat_map_app. Qed.

(* the same, read off the walk *)
Definition posd (x : section) : list ent :=
  match t_position (fst (fst x)) with Some q => [(q, own_abs x)] | None => [] end.

Lemma Bb_sections : forall t path a, flat_map posd (sections t path a) = Bb t (ktexts path) a.
Proof.
  induction t as [items d im dt p sp IH] using tbl_sub_ind. intros path a. rewrite sections_eq, Bb_eq, flat_map_app. f_equal.
  - unfold own_e. cbn [t_dotted t_position]. destruct dt; [reflexivity|]. cbn [flat_map]. unfold posd. cbn [fst t_position].
    destruct p; [|reflexivity]. rewrite own_abs_b. reflexivity.
  - cbn [t_items]. unfold BbI. induction items as [|[k it] items IHi]; [reflexivity|]. inversion IH as [|? ? H1 H2]; subst.
    cbn [flat_map]. rewrite flat_map_app, (IHi H2). f_equal. unfold sub_sections, Bit. cbn [fst snd] in *. rewrite <- ktexts_snoc.
    destruct it as [|v|sub|ts asp]; try reflexivity; [apply H1|].
    clear -H1. induction ts as [|e ts IHt]; [reflexivity|]. inversion H1; subst. cbn [flat_map]. rewrite flat_map_app, H2, (IHt H3). reflexivity.
Qed.

(* ---- sections without a position print nothing ------------------------------------------------------------------------ *)
Definition hentry_of (hp : tbl -> Prop) (kv : key * item) : Prop :=
  match snd kv with
  | ITable sub => hp sub /\ (t_implicit sub = true -> t_position sub = None)
                  /\ (t_dotted sub = false -> t_position sub = None -> t_implicit sub = true /\ no_lines sub = true)
  | IAot ts _ => all_P (fun e => hp e /\ t_position e <> None) ts
  | _ => True
  end.
Fixpoint hp (t : tbl) {struct t} : Prop := match t with Tbl items _ _ _ _ _ => all_P (hentry_of hp) items end.
Definition hentry : key * item -> Prop := hentry_of hp.
Lemma hp_eq t : hp t <-> all_P hentry (t_items t).
Proof. destruct t; reflexivity. Qed.

Lemma no_lines_stmts t : no_lines t = true -> line_stmts dval (sb_tbl t) = [].
Proof.
  unfold no_lines, line_stmts. intro H. rewrite <- tflat_lines. destruct (tflat [] t); [reflexivity|discriminate].
Qed.

Lemma hp_sections : forall t path, hp t ->
  Forall (fun x => t_position (fst (fst x)) = None -> own_abs x = []) (flat_map (sub_sections path) (t_items t)).
Proof.
  induction t as [items d im dt p sp IH] using tbl_sub_ind. intros path Hh. apply hp_eq in Hh. cbn [t_items] in *.
  apply Forall_forall. intros x Hin. apply in_flat_map in Hin as ([k it] & Hin1 & Hin2). pose proof (all_P_In _ _ _ Hh Hin1) as He.
  rewrite Forall_forall in IH. specialize (IH _ Hin1). unfold hentry, hentry_of, sub_sections in *. cbn [fst snd] in *.
  assert (Hne : path ++ [k] <> []) by (destruct path; discriminate).
  destruct it as [|v|sub|ts asp]; try contradiction.
  - destruct He as (Hs & _ & Hc). rewrite sections_eq in Hin2. apply in_app_or in Hin2 as [Hin2|Hin2].
    + destruct (t_dotted sub) eqn:Ed; [contradiction|]. destruct Hin2 as [<-|[]]. cbn [fst]. intro Hpos. destruct (Hc eq_refl Hpos) as [Hi Hn].
      unfold own_abs, own_hdr, hdr_printed. cbn [fst snd]. rewrite Hi, Hn, (no_lines_stmts sub Hn). destruct (path ++ [k]); reflexivity.
    + pose proof (IH (path ++ [k]) Hs) as F. rewrite Forall_forall in F. exact (F x Hin2).
  - apply in_flat_map in Hin2 as (e & He1 & Hin3). destruct (all_P_In _ _ _ He He1) as [Hs Hp]. rewrite Forall_forall in IH.
    rewrite sections_eq in Hin3. apply in_app_or in Hin3 as [Hin3|Hin3].
    + destruct (t_dotted e); [contradiction|]. destruct Hin3 as [<-|[]]. cbn [fst]. intro Hpos. contradiction.
    + pose proof (IH e He1 (path ++ [k]) Hs) as F. rewrite Forall_forall in F. exact (F x Hin3).
Qed.

(* ---- Display's order is the order of the positions ----------------------------------------------------------------- *)
Definition nonempty_e (e : ent) : bool := match snd e with [] => false | _ => true end.
Lemma flat_snd_filter (l : list ent) : flat_map snd (filter nonempty_e l) = flat_map snd l.
Proof.
  induction l as [|[q s] l IH]; [reflexivity|]. cbn [filter flat_map]. unfold nonempty_e at 1. cbn [snd]. destruct s; cbn [flat_map snd app]; rewrite IH; reflexivity.
Qed.

Definition payload (e : N * section) : ent := (fst e, own_abs (snd e)).

Lemma assign_filter : forall (l : list section) n,
  Forall (fun x => t_position (fst (fst x)) = None -> own_abs x = []) l ->
  filter nonempty_e (map payload (assign_positions n l)) = filter nonempty_e (flat_map posd l).
Proof.
  induction l as [|[[t p] a] l IH]; intros n H; [reflexivity|]. inversion H as [|? ? H1 H2]; subst. cbn [assign_positions map flat_map].
  unfold posd at 1. cbn [fst]. destruct (t_position t) as [q|] eqn:Ep.
  - cbn [app filter]. unfold payload at 1. cbn [fst snd]. rewrite (IH q H2). reflexivity.
  - cbn [app filter]. unfold payload at 1, nonempty_e at 1. cbn [fst snd] in *. rewrite (H1 Ep). apply IH, H2.
Qed.

Lemma flat_own_payload (l : list (N * section)) : flat_map own_abs (map snd l) = flat_map snd (map payload l).
Proof. induction l as [|[q x] l IH]; [reflexivity|]. cbn [map flat_map snd payload fst]. rewrite IH. reflexivity. Qed.

Lemma payload_on_snd (l : list (N * section)) : map payload l = map (on_snd own_abs) l.
Proof. reflexivity. Qed.

Definition Broot (r : tbl) : list ent := (0%N, own_b r [] false) :: BbI (t_items r) [].

Theorem replay_sorted r :
  t_dotted r = false -> t_position r = None -> hp r ->
  replay_stmts r = flat_map snd (stable_sort (Broot r)).
Proof.
  intros Hd Hp Hh. unfold replay_stmts, display_order. rewrite flat_own_payload, payload_on_snd, stable_sort_map, <- payload_on_snd.
  rewrite <- flat_snd_filter, stable_sort_filter. rewrite <- (flat_snd_filter (stable_sort (Broot r))), (stable_sort_filter nonempty_e (Broot r)).
  do 2 f_equal. rewrite sections_eq, Hd. cbn [app assign_positions]. rewrite Hp. cbn [map]. unfold payload at 1. cbn [fst snd].
  unfold Broot. rewrite own_abs_b. cbn [ktexts map filter].
  assert (E : filter nonempty_e (map payload (assign_positions 0 (flat_map (sub_sections []) (t_items r))))
              = filter nonempty_e (BbI (t_items r) [])).
  { rewrite (assign_filter _ 0 (hp_sections r [] Hh)). f_equal.
    (* the sub-sections, read off the walk *)
    clear. unfold BbI. induction (t_items r) as [|[k it] items IH]; [reflexivity|]. cbn [flat_map]. rewrite flat_map_app, IH. f_equal.
    unfold sub_sections, Bit. cbn [fst snd app]. destruct it as [|v|sub|ts asp]; try reflexivity.
    - rewrite (Bb_sections sub [k] false). reflexivity.
    - induction ts as [|e ts IHt]; [reflexivity|]. cbn [flat_map]. rewrite flat_map_app, IHt, (Bb_sections e [k] true). reflexivity. }
  destruct (nonempty_e (0%N, own_b r [] false)); rewrite E; reflexivity.
Qed.
