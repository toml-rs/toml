(* Proofs/DeLocKeys.v — the key path of a deserialization error (Model/DeLoc.v), on any tree and under
   any configuration: it lists exactly the keys of the steps that go through
   TableMapAccess::next_value_seed (`added_keys` of the ghost path) — struct fields and map entries, not
   array indices, not the key an error is raised AT, and NOT the key of an enum variant or of a tuple
   variant's component (known finding C15-de-keypath-omits-enum-variant). *)
From TV Require Import Base.Prelude Model.DatetimeStd Model.SerdeSpanned.
From TV Require Import Model.DeLoc Proofs.DeLocBase Proofs.DeLocWalk.

Definition kinv (e : lerr) : Prop :=
  e_keys e = added_keys (e_at e) (e_onkey e) /\ (e_onkey e = true -> e_at e <> []).

Lemma kinv_fresh e : fresh e -> kinv e.
Proof. intros (K & A & O). unfold kinv. rewrite K, A, O. split; [reflexivity|discriminate]. Qed.

Lemma kinv_fresh_nospan e : fresh_nospan e -> kinv e.
Proof. intros [F _]. apply kinv_fresh. exact F. Qed.

Lemma K_wrap {A} sp (r : lres A) : errs kinv r -> errs kinv (wrap sp r).
Proof.
  intro H. unfold wrap. eapply errs_map_err; [exact H|]. intros e K. destruct (e_span e); exact K.
Qed.
Lemma K_wrap_always {A} sp (r : lres A) : errs kinv r -> errs kinv (wrap_always sp r).
Proof. intro H. unfold wrap_always. eapply errs_map_err; [exact H|]. intros e K. exact K. Qed.

Lemma added_keys_cons_key i k p o : p <> [] \/ o = false ->
  added_keys (SKey i k :: p) o = k :: added_keys p o.
Proof.
  intros [H|H]; destruct p as [|x p']; try congruence; try reflexivity. subst. reflexivity.
Qed.

Lemma K_value_of_entry {A} i en (r : lres A) : errs kinv r -> errs kinv (value_of_entry i en r).
Proof.
  intro H. unfold value_of_entry, under, addkey. eapply errs_map_err; [|intros e K; exact K].
  eapply errs_map_err; [apply K_wrap; exact H|]. cbn beta. intros e [K O]. split; cbn [e_keys e_at e_onkey].
  - rewrite added_keys_cons_key.
    + rewrite K. reflexivity.
    + destruct (e_onkey e); [left; apply O; reflexivity|right; reflexivity].
  - intros _. discriminate.
Qed.

Lemma K_key_of_entry {A} i en (r : lres A) : errs fresh r -> errs kinv (key_of_entry i en r).
Proof.
  intro H. destruct r as [a|e]; [exact I|]. destruct H as (K & P & O).
  unfold key_of_entry, under, on_key, wrap. cbn [map_err errs].
  destruct (e_span e); split; cbn [e_keys e_at e_onkey set_span]; rewrite ?K, ?P; try reflexivity; intros _; discriminate.
Qed.

Lemma K_under_quiet {A} st (r : lres A) :
  (match st with SKey _ _ => False | _ => True end) -> errs kinv r -> errs kinv (under st r).
Proof.
  intros Hs H. unfold under. eapply errs_map_err; [exact H|]. intros e [K O].
  split; cbn [e_keys e_at e_onkey]; [|intros _; discriminate].
  destruct st; try contradiction; exact K.
Qed.

Lemma fresh_of_nospan {A} (r : lres A) : errs fresh_nospan r -> errs fresh r.
Proof. intro H. eapply errs_impl; [exact H|]. intros e [F _]. exact F. Qed.

(* ---- the deserializer: kinv is kept at every place (Proofs/DeLocWalk.v), whatever the tree ---- *)
Lemma K_closed c : closed c (fun _ => True) (fun _ => True) (fun _ => kinv) (fun _ => kinv) (fun _ => kinv).
Proof.
  constructor; try (intros s e H; exact H).
  - intros sp xs _. apply Forall_forall. intros x _. exact I.
  - intros sp es _. apply Forall_forall. intros x _. split; exact I.
  - intros s e F. apply kinv_fresh_nospan, F.
  - intros s k _. apply kinv_fresh. repeat split.
  - intros s. apply kinv_fresh. repeat split.
  - intros s k _. apply kinv_fresh. repeat split.
  - intros A s r _. apply K_wrap.
  - intros A s r _ _. apply K_wrap_always.
  - intros A sp es i e r _ _ _. apply K_value_of_entry.
  - intros A sp es i e r _ _ H. apply K_key_of_entry, fresh_of_nospan, H.
  - intros sp es i e st k _ _ [->|[->|[-> _]]]; split; try reflexivity; discriminate.
  - intros A sp xs i x r _. apply K_under_quiet. exact I.
  - intros A sp e r. apply K_under_quiet. exact I.
  - intros A sp es i e r _. apply K_under_quiet. exact I.
Qed.

Theorem K_de_loc c t s : errs kinv (de_loc c t s).
Proof. exact (walk_de_loc c _ _ _ _ _ (K_closed c) t s I). Qed.

(* ---- without spans anywhere (DocumentMut, toml::Value): the error has no span ---- *)
Definition nospan (e : lerr) : Prop := e_span e = None.

Fixpoint ns (s : stree) : Prop :=
  span_of s = None /\
  match s with
  | NLeaf _ _ => True
  | NArr _ xs => (fix all (l : list stree) : Prop := match l with [] => True | x :: l' => ns x /\ all l' end) xs
  | NTab _ es => (fix all (l : list entry) : Prop :=
                    match l with [] => True | e :: l' => (en_kspan e = None /\ ns (en_val e)) /\ all l' end) es
  end.

Lemma ns_arr sp xs : ns (NArr sp xs) -> sp = None /\ Forall ns xs.
Proof.
  cbn [ns span_of]. intros [E H]. split; [exact E|]. induction xs as [|x xs IH]; [constructor|].
  destruct H as [H1 H2]. constructor; [exact H1|apply IH; exact H2].
Qed.
Lemma ns_tab sp es : ns (NTab sp es) -> sp = None /\ Forall (fun e => en_kspan e = None /\ ns (en_val e)) es.
Proof.
  cbn [ns span_of]. intros [E H]. split; [exact E|]. induction es as [|x xs IH]; [constructor|].
  destruct H as [H1 H2]. constructor; [exact H1|apply IH; exact H2].
Qed.

Fixpoint ns_despan (s : stree) : ns (despan s) :=
  match s return ns (despan s) with
  | NLeaf sp x => conj eq_refl I
  | NArr sp xs =>
    conj eq_refl
         ((fix G (l : list stree) :
             (fix all (l : list stree) : Prop := match l with [] => True | x :: l' => ns x /\ all l' end) (map despan l) :=
             match l with [] => I | x :: l' => conj (ns_despan x) (G l') end) xs)
  | NTab sp es =>
    conj eq_refl
         ((fix G (l : list (bytes * ospan * stree)) :
             (fix all (l : list entry) : Prop :=
                match l with [] => True | e :: l' => (en_kspan e = None /\ ns (en_val e)) /\ all l' end)
               (map (fun e => (fst (fst e), None, despan (snd e))) l) :=
             match l with [] => I | e :: l' => conj (conj eq_refl (ns_despan (snd e))) (G l') end) es)
  end.

Lemma N_wrap_none {A} (r : lres A) : errs nospan r -> errs nospan (wrap None r).
Proof.
  intro H. unfold wrap. eapply errs_map_err; [exact H|]. intros e E. unfold nospan in *. rewrite E. reflexivity.
Qed.
Lemma N_map_err {A} g (r : lres A) : (forall e, e_span (g e) = e_span e) -> errs nospan r -> errs nospan (map_err g r).
Proof. intros Hg H. eapply errs_map_err; [exact H|]. intros e E. unfold nospan in *. rewrite Hg. exact E. Qed.
Lemma N_under {A} st (r : lres A) : errs nospan r -> errs nospan (under st r).
Proof. apply N_map_err. reflexivity. Qed.
Lemma N_on_key {A} (r : lres A) : errs nospan r -> errs nospan (on_key r).
Proof. apply N_map_err. reflexivity. Qed.
Lemma N_addkey {A} k (r : lres A) : errs nospan r -> errs nospan (addkey k r).
Proof. apply N_map_err. reflexivity. Qed.
Lemma N_of_fresh {A} (r : lres A) : errs fresh_nospan r -> errs nospan r.
Proof. intro H. eapply errs_impl; [exact H|]. intros e [_ E]. exact E. Qed.

Lemma N_value_of_entry {A} i e (r : lres A) :
  en_kspan e = None -> span_of (en_val e) = None -> errs nospan r -> errs nospan (value_of_entry i e r).
Proof.
  intros K V H. unfold value_of_entry. apply N_under, N_addkey. rewrite V, K. apply N_wrap_none. exact H.
Qed.
Lemma N_key_of_entry {A} i e (r : lres A) : en_kspan e = None -> errs nospan r -> errs nospan (key_of_entry i e r).
Proof. intros K H. unfold key_of_entry. apply N_under, N_on_key. rewrite K. apply N_wrap_none. exact H. Qed.

Lemma ns_span s : ns s -> span_of s = None.
Proof. destruct s; intros [E _]; exact E. Qed.

Lemma N_closed c : closed c ns (fun e => en_kspan e = None) (fun _ => nospan) (fun _ => nospan) (fun _ => nospan).
Proof.
  constructor; try (intros s e H; exact H).
  - intros sp xs H. exact (proj2 (ns_arr sp xs H)).
  - intros sp es H. exact (proj2 (ns_tab sp es H)).
  - intros s e [_ E]. exact E.
  - reflexivity.
  - reflexivity.
  - intros s k Hs. exact (ns_span s Hs).
  - intros A s r Hs H. rewrite (ns_span s Hs). apply N_wrap_none, H.
  - intros A s r _ Hs H. rewrite (ns_span s Hs). unfold wrap_always. eapply errs_map_err; [exact H|]. intros e _. reflexivity.
  - intros A sp es i e r _ Hk Hv H. apply N_value_of_entry; [exact Hk|apply ns_span, Hv|exact H].
  - intros A sp es i e r _ Hk H. apply N_key_of_entry; [exact Hk|apply N_of_fresh, H].
  - intros sp es i e st k _ Hk _. exact Hk.
  - intros A sp xs i x r _. apply N_under.
  - intros A sp e r. apply N_under.
  - intros A sp es i e r _. apply N_under.
Qed.

Theorem N_de_loc c t s : ns s -> errs nospan (de_loc c t s).
Proof. exact (walk_de_loc c _ _ _ _ _ (N_closed c) t s). Qed.

(* ---- the key path without source text ---- *)
Theorem keys_without_text c t s e :
  de_loc c t (despan s) = LErr e ->
  e_span e = None /\ e_keys e = added_keys (e_at e) (e_onkey e).
Proof.
  intro E. split.
  - pose proof (N_de_loc c t (despan s) (ns_despan s)) as H. rewrite E in H. exact H.
  - pose proof (K_de_loc c t (despan s)) as H. rewrite E in H. exact (proj1 H).
Qed.

(* outside the class of the known finding the plumbing produces the ideal key path *)
Lemma added_ideal p o : below_variant p = false -> o = false -> added_keys p o = ideal_keys p.
Proof.
  intros B ->. induction p as [|st p IH]; [reflexivity|]. unfold below_variant in *. cbn [existsb] in B.
  destruct st; cbn [orb] in B; try discriminate; cbn [added_keys ideal_keys].
  - destruct p as [|st' p']; [reflexivity|]. rewrite (IH B). reflexivity.
  - apply IH. exact B.
Qed.
