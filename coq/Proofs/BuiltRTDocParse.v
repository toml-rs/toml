(* Proofs/BuiltRTDocParse.v — C06, documents, parser side: a text made of the lines the printer emits
   (`key = value`, blank line, `[a.b]`, `[[a.b]]`) is read by `document` line by line; each line is one
   statement of the definition rules (Spec/Defs.v), applied by the state machine as Proofs/DefsEquiv*
   (C09) shows; the resulting tree is the one the statements define. *)
From TV Require Import Base.Prelude Base.Utf8 Base.Winnow Gen.Consts.
From TV Require Import Model.Trivia Model.Strings Model.Datetime Model.Numbers Model.Tree Model.Parse Model.Document.
From TV Require Import Model.Write Model.Encode Model.Build.
From TV Require Import Proofs.StringsRTDefs Proofs.StringsRTBase Proofs.StringsRTBasic Proofs.StringsRTTop Proofs.StringsRTDoc.
From TV Require Import Proofs.BuiltRTBase Proofs.BuiltRTEncode Proofs.BuiltRTParse Proofs.BuiltRTKey Proofs.BuiltRTValue Proofs.BuiltRTTop.
From TV Require Import Proofs.BuiltRTSpecMap.
From TV Require Spec.Defs Proofs.DefsEquivBase Proofs.DefsEquivSim Proofs.DefsEquivMain.
Require Import Lia ZifyBool ZifyN ZifyNat.

Module D := Spec.Defs.
Module DB := Proofs.DefsEquivBase.
Module DS := Proofs.DefsEquivSim.
Module DM := Proofs.DefsEquivMain.

(* ---- the lines of a printed document ------------------------------------------------------------------------ *)
Inductive dline : Type :=
| LKeyVal (k : bytes) (v : value)
| LBlank
| LHeader (arr : bool) (path : list bytes).

Section Lines.
  Variable ftext : fval -> bytes.

  Definition path_txt (path : list bytes) : bytes :=
    encode_key_path (map key_new path) DEFAULT_KEY_PATH_DECOR.

  Definition line_txt (l : dline) : bytes :=
    match l with
    | LKeyVal k v =>
      encode_key_path [key_new k] DEFAULT_KEY_DECOR ++ [x3d] ++ etxt ftext v DEFAULT_VALUE_DECOR ++ [x0a]
    | LBlank => [x0a]
    | LHeader false path => [x5b] ++ path_txt path ++ [x5d] ++ [x0a]
    | LHeader true path => [x5b; x5b] ++ path_txt path ++ [x5d; x5d] ++ [x0a]
    end.

  Definition line_ok (l : dline) : Prop :=
    match l with
    | LKeyVal k v => key_ok k /\ BuiltValue (leaf_ok ftext) key_ok v /\ value_depth v < LIMIT
    | LBlank => True
    | LHeader _ path => path <> [] /\ Forall key_ok path /\ length path < LIMIT
    end.

  (* the statement a line is *)
  Definition line_stmt (l : dline) : list (D.stmt aval) :=
    match l with
    | LKeyVal k v => [D.SKeyVal [k] (abs_value v)]
    | LBlank => []
    | LHeader false path => [D.SHeader path]
    | LHeader true path => [D.SArrHeader path]
    end.

  (* every line starts with a byte that is not a blank *)
  Definition lstart (b : byte) : Prop :=
    in_class WSCHAR b = false /\ byte_eqb b xef = false.
  Definition lhead (R : bytes) : Prop := match R with [] => True | b :: _ => lstart b end.

  Lemma key_token_lstart k tk R : write_key KDefault k = Some tk -> lhead (tk ++ R).
  Proof.
    intro Hw. destruct (key_token_head k tk Hw) as (b & tk' & -> & Hb).
    destruct (key_head_facts b Hb) as (H1 & H2 & _). split; assumption.
  Qed.

  Lemma line_txt_head l R : line_ok l -> lhead (line_txt l ++ R).
  Proof.
    destruct l as [k v| |[|] path]; cbn [line_ok line_txt]; intro H; try (split; reflexivity).
    destruct H as (Hk & _). destruct (key_display_new k) as (tk & Hw & _).
    rewrite (encode_key_path_one k tk _ Hw). cbn [fst snd DEFAULT_KEY_DECOR app].
    rewrite <- !app_assoc. apply (key_token_lstart k tk _ Hw).
  Qed.

  Lemma lhead_ws R : lhead R -> stops (in_class WSCHAR) R.
  Proof. destruct R as [|b R]; [auto|]. intros [H _]. exact H. Qed.

  (* ---- trivia ------------------------------------------------------------------------------------------------ *)
  Lemma line_trailing_nl R d : pto line_trailing [x0a] R d (fun _ => True).
  Proof. intro p. eexists. eexists. split; [reflexivity|exact I]. Qed.

  Lemma parse_ws_none st R p d : lhead R -> parse_ws st (mkIn R p d) = Ok (on_ws st (p, p)) (mkIn R p d).
  Proof.
    intro H. unfold parse_ws. rewrite (pmap_ok _ _ _ (p, p) (mkIn R p d)); [reflexivity|].
    exact (span_ok ws (mkIn R p d) [] (mkIn R p d) (ws_none R p d (lhead_ws R H))).
  Qed.

  (* ---- `key = value` ------------------------------------------------------------------------------------------ *)
  Lemma pto_value_ v R d :
    BuiltValue (leaf_ok ftext) key_ok v -> vterm R -> d + value_depth v < LIMIT ->
    pto value_ (txt ftext v) R d (fun v' => abs_value v' = abs_value v).
  Proof.
    intros Hb HR Hd p. destruct (value_txt_rt ftext v Hb) as [_ Hrt].
    pose proof (depth_le_txt ftext _ _ v Hb) as Hlen.
    unfold value_. cbn [rest]. apply Hrt; [exact HR| |exact Hd]. rewrite app_length. lia.
  Qed.

  Lemma parse_keyval_pto k v R :
    key_ok k -> BuiltValue (leaf_ok ftext) key_ok v -> value_depth v < LIMIT ->
    pto parse_keyval (line_txt (LKeyVal k v)) R 0
        (fun pr => exists kk vv, pr = ([], (kk, IValue vv)) /\ k_key kk = k /\ abs_value vv = abs_value v).
  Proof.
    intros Hk Hb Hd. destruct (key_display_new k) as (tk & Hw & _).
    destruct (value_txt_rt ftext v Hb) as [Hh _].
    cbn [line_txt]. rewrite (encode_key_path_one k tk _ Hw). cbn [fst snd DEFAULT_KEY_DECOR].
    unfold etxt. set (a := decor_prefix (value_decor v) [x20]).
    assert (Ha : sp a).
    { apply prefix_sp; [apply (built_decor _ _ _ Hb)|right; reflexivity]. }
    assert (Eb : wrap (value_decor v) DEFAULT_VALUE_DECOR (txt ftext v) = a ++ txt ftext v).
    { unfold wrap. cbn [fst snd DEFAULT_VALUE_DECOR]. fold a.
      assert (Es : decor_suffix (value_decor v) [] = []).
      { destruct (built_decor _ _ _ Hb) as [_ [H | H]]; unfold decor_suffix; rewrite H; reflexivity. }
      rewrite Es, app_nil_r. reflexivity. }
    rewrite Eb.
    replace (([] ++ tk ++ [x20]) ++ [x3d] ++ (a ++ txt ftext v) ++ [x0a])
      with (([] ++ tk ++ [x20]) ++ x3d :: a ++ txt ftext v ++ [x0a]) by (cbn [app]; rewrite <- !app_assoc; reflexivity).
    apply (keyval_of_pto value_ (context line_trailing) 0 k tk [] [x20] a (txt ftext v) [x0a] R (abs_value v));
      auto; try (left; reflexivity); try (right; reflexivity).
    - apply pto_value_; [exact Hb| |cbn [Nat.add]; exact Hd]. cbn [app vterm]. right. left. reflexivity.
    - apply pto_context, line_trailing_nl.
  Qed.
End Lines.

(* ---- `[a.b]` / `[[a.b]]` ---------------------------------------------------------------------------------------- *)
Definition tok (k : bytes) : bytes := key_display_repr (key_new k).
Definition part_of (k : bytes) : bytes * bytes * bytes * bytes := (k, [], tok k, []).

Lemma part_of_ok k : key_ok k -> part_ok (part_of k).
Proof.
  intro Hk. destruct (key_display_new k) as (tk & Hw & Etk). unfold part_ok, part_of, tok. cbn [fst snd].
  rewrite Etk. repeat split; auto; left; reflexivity.
Qed.

Lemma ekp_loop_new first ks :
  encode_key_path_loop decor_default DEFAULT_KEY_PATH_DECOR first (map key_new ks)
  = match ks with
    | [] => []
    | k :: tl => (if first then [] else [x2e]) ++ tok k ++ concat (map (fun k' => x2e :: tok k') tl)
    end.
Proof.
  revert first. induction ks as [|k tl IH]; intro first; [reflexivity|].
  cbn [map encode_key_path_loop]. rewrite IH. unfold tok.
  destruct first, tl as [|k2 tl2]; cbn [map concat app]; rewrite ?app_nil_r; reflexivity.
Qed.

Lemma path_txt_segs k0 ks :
  path_txt (k0 :: ks) = seg_txt (part_seg (part_of k0)) ++ segs_txt DOT_SEP (map part_seg (map part_of ks)).
Proof.
  unfold path_txt, encode_key_path.
  assert (El : exists last rinit, rev (map key_new (k0 :: ks)) = key_new last :: rinit).
  { rewrite <- map_rev. destruct (rev (k0 :: ks)) as [|l r] eqn:E.
    - apply (f_equal (@length bytes)) in E. rewrite rev_length in E. discriminate.
    - exists l, (map key_new r). reflexivity. }
  destruct El as (last & rinit & ->). cbn [k_leaf key_new].
  rewrite ekp_loop_new. cbn [part_seg part_of seg_txt fst snd app]. rewrite app_nil_r. f_equal.
  induction ks as [|k tl IH]; [reflexivity|]. cbn [map concat segs_txt part_seg part_of seg_txt fst snd app].
  rewrite app_nil_r, IH. reflexivity.
Qed.

Lemma parts_of_ok ks : Forall key_ok ks -> Forall part_ok (map part_of ks).
Proof. induction 1; constructor; [apply part_of_ok; assumption|assumption]. Qed.

Lemma key_path_header_pto path R :
  path <> [] -> Forall key_ok path -> length path < LIMIT ->
  pto key_ (path_txt path) (x5d :: R) 0 (fun kp => map k_key kp = path).
Proof.
  intros Hne Hk Hlen. destruct path as [|k0 ks]; [contradiction|]. inversion Hk as [|? ? Hk0 Hks]; subst.
  rewrite path_txt_segs.
  eapply pto_weaken.
  - apply key_path_pto; [apply part_of_ok, Hk0|apply parts_of_ok, Hks|apply kend_close|reflexivity|].
    rewrite map_length. exact Hlen.
  - intros kp Hkp. rewrite Hkp. cbn [map part_of fst]. f_equal. rewrite map_map. cbn [part_of fst]. apply map_id.
Qed.

Lemma key_path_header_limit path R p :
  path <> [] -> Forall key_ok path -> LIMIT <= length path ->
  key_ (mkIn (path_txt path ++ x5d :: R) p 0) = Bt (err_of RecursionLimit) (mkIn (path_txt path ++ x5d :: R) p 0).
Proof.
  intros Hne Hk Hlen. destruct path as [|k0 ks]; [contradiction|]. inversion Hk as [|? ? Hk0 Hks]; subst.
  rewrite path_txt_segs.
  apply key_path_limit; [apply part_of_ok, Hk0|apply parts_of_ok, Hks|apply kend_close|reflexivity|].
  rewrite map_length. exact Hlen.
Qed.

Definition hdr_inner (is_array : bool) :=
  pair_ (with_span (delimited (if is_array then pvoid (lit ARRAY_TABLE_OPEN) else pvoid (byte_ STD_TABLE_OPEN))
                              (cut_err key_)
                              (context (cut_err (if is_array then pvoid (lit ARRAY_TABLE_CLOSE) else pvoid (byte_ STD_TABLE_CLOSE))))))
        (context (cut_err line_trailing)).

Lemma header_eq is_array st : header is_array st
  = try_map (fun '((h, sp0), t) => lift_state (on_header is_array st h t sp0)) (hdr_inner is_array).
Proof. unfold header, hdr_inner. destruct is_array; reflexivity. Qed.

Lemma pto_lit l R d : pto (lit l) l R d (fun _ => True).
Proof. intro p. exists l, (p + N.of_nat (length l))%N. split; [apply lit_yes|exact I]. Qed.

Lemma hdr_inner_pto ftext arr path R :
  path <> [] -> Forall key_ok path -> length path < LIMIT ->
  pto (hdr_inner arr) (line_txt ftext (LHeader arr path)) R 0 (fun x => map k_key (fst (fst x)) = path).
Proof.
  intros Hne Hk Hlen. unfold hdr_inner, pair_.
  set (OPEN := if arr then [x5b; x5b] else [x5b]). set (CLOSE := if arr then [x5d; x5d] else [x5d]).
  assert (Et : line_txt ftext (LHeader arr path) = (OPEN ++ path_txt path ++ CLOSE) ++ [x0a]).
  { unfold OPEN, CLOSE. destruct arr; cbn [line_txt]; rewrite <- !app_assoc; reflexivity. }
  rewrite Et.
  apply pto_bind with (Q1 := fun x => map k_key (fst x) = path).
  - eapply pto_weaken; [apply pto_with_span with (Q0 := fun kp => map k_key kp = path)|intros x Hx; exact Hx].
    unfold delimited.
    apply pto_bind with (Q1 := fun _ => True).
    { unfold OPEN. destruct arr; apply pto_pmap; [apply (pto_lit [x5b; x5b])|apply pto_byte]. }
    intros _ _.
    apply pto_bind with (Q1 := fun kp => map k_key kp = path).
    { apply pto_cut_err.
      assert (EC : exists R', (CLOSE ++ [x0a] ++ R) = x5d :: R') by (unfold CLOSE; destruct arr; eexists; reflexivity).
      destruct EC as (R' & EC). rewrite EC. exact (key_path_header_pto path R' Hne Hk Hlen). }
    intros kp Hkp.
    apply pto_bind_ret with (Q1 := fun _ => True); [|intros _ _; exact Hkp].
    apply pto_context, pto_cut_err. unfold CLOSE. destruct arr; apply pto_pmap; [apply (pto_lit [x5d; x5d])|apply pto_byte].
  - intros [h sp0] Hh. cbn [fst] in Hh.
    apply pto_bind_ret with (Q1 := fun _ => True); [|intros t _; exact Hh].
    apply pto_context, pto_cut_err, line_trailing_nl.
Qed.

(* a header whose path has LIMIT keys or more: every key is read, then `key` refuses their number *)
Lemma header_limit ftext arr st path R p :
  path <> [] -> Forall key_ok path -> LIMIT <= length path ->
  exists e i', header arr st (mkIn (line_txt ftext (LHeader arr path) ++ R) p 0) = Cut e i'.
Proof.
  intros Hne Hk Hlen.
  assert (E : exists R', line_txt ftext (LHeader arr path) ++ R = (if arr then [x5b; x5b] else [x5b]) ++ path_txt path ++ x5d :: R').
  { destruct arr; cbn [line_txt app]; rewrite <- app_assoc; eexists; reflexivity. }
  destruct E as (R' & ->).
  rewrite header_eq. unfold try_map, hdr_inner, pair_, with_span, delimited, bind, pvoid, pmap.
  destruct arr; [rewrite lit_yes; unfold after|cbn [app]; rewrite byte_yes]; unfold cut_err;
    rewrite (key_path_header_limit path R' _ Hne Hk Hlen); eexists; eexists; reflexivity.
Qed.

(* ---- one line of `document`, and the state machine step it performs ------------------------------------------- *)
Section Loop.
  Variable ftext : fval -> bytes.

  Definition absS (S : D.sstate value) : D.sstate aval := map_state abs_value S.

  Lemma doc_line_dispatch st b tl p d :
    doc_line st (mkIn (b :: tl) p d)
    = bind (if byte_eqb b COMMENT_START_SYMBOL then cut_err (parse_comment st)
            else if byte_eqb b STD_TABLE_OPEN then cut_err (table st)
            else if byte_eqb b LF || byte_eqb b CR then parse_newline st
            else cut_err (keyval st)) parse_ws (mkIn (b :: tl) p d).
  Proof. reflexivity. Qed.

  Lemma doc_line_header st arr path R p :
    path <> [] -> Forall key_ok path ->
    doc_line st (mkIn (line_txt ftext (LHeader arr path) ++ R) p 0)
    = bind (cut_err (context (header arr st))) parse_ws (mkIn (line_txt ftext (LHeader arr path) ++ R) p 0).
  Proof.
    intros Hne Hk.
    assert (Etab : forall i, i = mkIn (line_txt ftext (LHeader arr path) ++ R) p 0 ->
                   (two <- peek (take_n 2) ;; if bytes_eqb two [x5b; x5b] then header true st else header false st)%parser i
                   = header arr st i).
    { intros i ->. destruct arr.
      - reflexivity.
      - destruct path as [|k0 ks]; [contradiction|]. inversion Hk as [|? ? Hk0 _]; subst.
        destruct (key_display_new k0) as (tk & Hw & Etk).
        destruct (key_token_head k0 tk Hw) as (b & tk' & Eb & Hb0).
        destruct (key_head_facts b Hb0) as (_ & _ & _ & H2 & _).
        assert (Ept : exists tl, path_txt (k0 :: ks) = b :: tl).
        { rewrite path_txt_segs. cbn [part_seg part_of seg_txt fst snd app]. unfold tok. rewrite Etk, Eb. cbn [app]. eauto. }
        destruct Ept as (tl & Ept). cbn [line_txt app]. rewrite Ept. cbn [app].
        rewrite (bind_ok _ _ _ [x5b; b] (mkIn (x5b :: b :: (tl ++ [x5d] ++ [x0a]) ++ R) p 0)) by reflexivity.
        cbn [bytes_eqb]. rewrite byte_eqb_refl. cbn [andb]. unfold STD_TABLE_OPEN in H2. rewrite H2. reflexivity. }
    assert (Ehead : exists tl, line_txt ftext (LHeader arr path) ++ R = x5b :: tl) by (destruct arr; cbn [line_txt app]; eauto).
    destruct Ehead as (tl & Ehead). rewrite Ehead, doc_line_dispatch, <- Ehead.
    change (byte_eqb x5b COMMENT_START_SYMBOL) with false. change (byte_eqb x5b STD_TABLE_OPEN) with true. cbv iota.
    unfold bind at 1 2, cut_err, table, context. rewrite (Etab _ eq_refl). reflexivity.
  Qed.

  Lemma doc_line_header_limit st arr path R p :
    path <> [] -> Forall key_ok path -> LIMIT <= length path ->
    exists e i', doc_line st (mkIn (line_txt ftext (LHeader arr path) ++ R) p 0) = Cut e i'.
  Proof.
    intros Hne Hk Hlen. rewrite (doc_line_header st arr path R p Hne Hk).
    destruct (header_limit ftext arr st path R p Hne Hk Hlen) as (e & i' & E).
    unfold bind, cut_err, context. rewrite E. eexists. eexists. reflexivity.
  Qed.

  Lemma spec_fold_one {V} (S : D.sstate V) s Sa : D.spec_fold false S [s] = D.ROk Sa -> D.spec_step false S s = D.ROk Sa.
  Proof. cbn [D.spec_fold]. destruct (D.spec_step false S s); cbn [D.rbind]; congruence. Qed.

  (* a model statement whose erasure maps to the abstract statement s steps the state machine as the
     abstract rules step the abstract tree *)
  Lemma mstep_abs st S m Sa' :
    DS.Inv st S -> D.spec_step false (absS S) (map_stmt abs_value (DB.erase m)) = D.ROk Sa' ->
    exists st1 S1, DB.mstep st m = COk st1 /\ DS.Inv st1 S1 /\ absS S1 = Sa'.
  Proof.
    intros HI Hs. unfold absS in Hs. rewrite spec_step_map in Hs.
    pose proof (DM.mstep_sim st S m HI) as Hsim.
    destruct (D.spec_step false S (DB.erase m)) as [S1| |]; cbn [map_res] in Hs; try discriminate.
    injection Hs as Hs. cbn [DM.simstep] in Hsim. destruct Hsim as (st1 & E & HI1).
    exists st1, S1. auto.
  Qed.

  Lemma on_keyval_sp_nil st kk it st1 : on_keyval st [] kk it = COk st1 -> on_keyval_sp st [] kk it = COk st1.
  Proof. intro H. unfold on_keyval_sp. rewrite H. cbn [set_dotted_spans]. destruct st1; reflexivity. Qed.

  Lemma exists_last_key (h : list key) : h <> [] -> exists pre k, h = pre ++ [k].
  Proof. intro H. destruct (exists_last H) as (pre & k & E). eauto. Qed.

  Lemma doc_line_sim l R st S p :
    line_ok ftext l -> lhead R -> DS.Inv st S ->
    forall Sa', D.spec_fold false (absS S) (line_stmt l) = D.ROk Sa' ->
    exists st' S' p', doc_line st (mkIn (line_txt ftext l ++ R) p 0) = Ok st' (mkIn R p' 0)
                      /\ DS.Inv st' S' /\ absS S' = Sa'.
  Proof.
    intros Hok HR HI Sa' Hfold. destruct l as [k v| |arr path].
    - (* key = value *)
      destruct Hok as (Hk & Hb & Hd).
      destruct (parse_keyval_pto ftext k v R Hk Hb Hd p) as (pr & p1 & Epk & kk & vv & -> & Hkk & Hvv).
      apply spec_fold_one in Hfold. cbn [line_stmt] in Hfold.
      assert (Em : map_stmt abs_value (DB.erase (DB.MKeyVal [] kk vv)) = D.SKeyVal [k] (abs_value v)).
      { cbn [DB.erase DB.keys map app map_stmt]. rewrite Hkk, Hvv. reflexivity. }
      rewrite <- Em in Hfold. destruct (mstep_abs st S _ Sa' HI Hfold) as (st1 & S1 & Est & HI1 & Ha).
      cbn [DB.mstep] in Est.
      exists (on_ws st1 (p1, p1)), S1, p1. split; [|split; [apply DM.Inv_on_ws, HI1|exact Ha]].
      destruct (key_display_new k) as (tk & Hw & _).
      destruct (key_token_head k tk Hw) as (b & tk' & Etk & Hb0).
      destruct (key_head_facts b Hb0) as (_ & _ & H1 & H2 & H3 & H4).
      assert (Eh : exists tl, line_txt ftext (LKeyVal k v) ++ R = b :: tl).
      { cbn [line_txt]. rewrite (encode_key_path_one k tk _ Hw), Etk. cbn [fst DEFAULT_KEY_DECOR app]. eauto. }
      destruct Eh as (tl & Eh). rewrite Eh, doc_line_dispatch, <- Eh. rewrite H1, H2, H3, H4. cbn [orb].
      rewrite (bind_ok _ _ _ st1 (mkIn R p1 0)); [apply parse_ws_none, HR|].
      apply cut_err_ok. unfold keyval, try_map. rewrite Epk. rewrite (on_keyval_sp_nil _ _ _ _ Est). reflexivity.
    - (* blank line *)
      cbn [line_stmt D.spec_fold] in Hfold. injection Hfold as <-.
      exists (on_ws (on_ws st (p, (p + 1)%N)) ((p + 1)%N, (p + 1)%N)), S, (p + 1)%N.
      split; [|split; [apply DM.Inv_on_ws, DM.Inv_on_ws, HI|reflexivity]].
      cbn [line_txt app]. rewrite doc_line_dispatch.
      change (byte_eqb x0a COMMENT_START_SYMBOL) with false. change (byte_eqb x0a STD_TABLE_OPEN) with false.
      change (byte_eqb x0a LF || byte_eqb x0a CR) with true. cbv iota.
      rewrite (bind_ok _ _ _ (on_ws st (p, (p + 1)%N)) (mkIn R (p + 1)%N 0)); [apply parse_ws_none, HR|reflexivity].
    - (* headers *)
      destruct Hok as (Hne & Hk & Hlen).
      destruct (hdr_inner_pto ftext arr path R Hne Hk Hlen p) as ([[h sp0] tr] & p1 & Eh & Hh). cbn [fst] in Hh.
      assert (Hhne : h <> []) by (intro E; subst h; destruct path; [contradiction|discriminate]).
      destruct (exists_last_key h Hhne) as (pre & kl & ->).
      assert (Hfold0 : D.spec_step false (absS S) (if arr then D.SArrHeader path else D.SHeader path) = D.ROk Sa')
        by (destruct arr; apply spec_fold_one; exact Hfold).
      assert (Em : map_stmt abs_value (DB.erase (DB.MHeader arr pre kl tr sp0))
                   = if arr then D.SArrHeader path else D.SHeader path).
      { destruct arr; cbn [DB.erase map_stmt]; unfold DB.keys; rewrite <- Hh, map_app; reflexivity. }
      assert (Hfold' : D.spec_step false (absS S) (map_stmt abs_value (DB.erase (DB.MHeader arr pre kl tr sp0))) = D.ROk Sa').
      { rewrite Em. exact Hfold0. }
      destruct (mstep_abs st S _ Sa' HI Hfold') as (st1 & S1 & Est & HI1 & Ha).
      cbn [DB.mstep] in Est.
      exists (on_ws st1 (p1, p1)), S1, p1. split; [|split; [apply DM.Inv_on_ws, HI1|exact Ha]].
      assert (Ehd : header arr st (mkIn (line_txt ftext (LHeader arr path) ++ R) p 0) = Ok st1 (mkIn R p1 0)).
      { rewrite header_eq. unfold try_map. rewrite Eh, Est. reflexivity. }
      rewrite (doc_line_header st arr path R p Hne Hk).
      rewrite (bind_ok _ _ _ st1 (mkIn R p1 0)); [apply parse_ws_none, HR|]. apply cut_err_ok, context_ok, Ehd.
  Qed.
End Loop.

(* ---- the whole document -------------------------------------------------------------------------------------------- *)
Section Document.
  Variable ftext : fval -> bytes.

  Definition lines_txt (ls : list dline) : bytes := concat (map (line_txt ftext) ls).
  Definition lines_stmts (ls : list dline) : list (D.stmt aval) := flat_map line_stmt ls.

  Lemma spec_fold_app {V} (a b : list (D.stmt V)) S :
    D.spec_fold false S (a ++ b) = D.rbind (D.spec_fold false S a) (fun S1 => D.spec_fold false S1 b).
  Proof.
    revert S. induction a as [|s a IH]; intro S; [reflexivity|]. cbn [app D.spec_fold].
    destruct (D.spec_step false S s); cbn [D.rbind]; [apply IH|reflexivity|reflexivity].
  Qed.

  Lemma lines_txt_head ls R : Forall (line_ok ftext) ls -> lhead R -> lhead (lines_txt ls ++ R).
  Proof.
    intros [|l ls' Hl _] HR; [exact HR|]. unfold lines_txt. cbn [map concat]. rewrite <- app_assoc.
    apply line_txt_head, Hl.
  Qed.

  Lemma line_txt_nonempty l : line_ok ftext l -> 0 < length (line_txt ftext l).
  Proof.
    destruct l as [k v| |[|] path]; cbn [line_txt]; intro H; rewrite ?app_length; cbn [length]; lia.
  Qed.

  (* the loop of `document` reads the lines and goes on with what follows them *)
  Lemma doc_loop_sim ls R : Forall (line_ok ftext) ls -> lhead R ->
    forall fuel st S p Sa', DS.Inv st S -> length (lines_txt ls ++ R) < fuel ->
      D.spec_fold false (absS S) (lines_stmts ls) = D.ROk Sa' ->
      exists st' S' p' fuel', doc_loop fuel st (mkIn (lines_txt ls ++ R) p 0) = doc_loop fuel' st' (mkIn R p' 0)
                              /\ length R < fuel' /\ DS.Inv st' S' /\ absS S' = Sa'.
  Proof.
    intros Hls HR. induction Hls as [|l ls Hl Hls IH]; intros fuel st S p Sa' HI Hf Hfold.
    - cbn [lines_stmts flat_map D.spec_fold] in Hfold. injection Hfold as <-. exists st, S, p, fuel. auto.
    - destruct fuel as [|f]; [lia|].
      unfold lines_stmts in Hfold. cbn [flat_map] in Hfold. rewrite spec_fold_app in Hfold.
      destruct (D.spec_fold false (absS S) (line_stmt l)) as [Sa1| |] eqn:E1; cbn [D.rbind] in Hfold; try discriminate.
      assert (Et : lines_txt (l :: ls) ++ R = line_txt ftext l ++ lines_txt ls ++ R).
      { unfold lines_txt. cbn [map concat]. rewrite <- app_assoc. reflexivity. }
      rewrite Et in Hf |- *. rewrite app_length in Hf. pose proof (line_txt_nonempty l Hl) as Hne.
      destruct (doc_line_sim ftext l (lines_txt ls ++ R) st S p Hl (lines_txt_head ls R Hls HR) HI Sa1 E1)
        as (st1 & S1 & p1 & Ed & HI1 & Ha1).
      destruct (IH f st1 S1 p1 Sa' HI1) as (st' & S' & p' & fuel' & El & Hf' & HI' & Ha').
      { unfold bytes in *. lia. }
      { rewrite Ha1. exact Hfold. }
      exists st', S', p', fuel'. split; [|auto]. cbn [doc_loop]. rewrite Ed. cbn [rest].
      rewrite eqb_lt; [exact El|]. rewrite (app_length (line_txt ftext l)). unfold bytes in *. lia.
  Qed.

  Lemma document_lines ls R Sa' :
    Forall (line_ok ftext) ls -> lhead R -> D.spec_fold false D.sstate0 (lines_stmts ls) = D.ROk Sa' ->
    exists st' S' p' fuel',
      document (mkIn (lines_txt ls ++ R) 0%N 0) = (st'' <- doc_loop fuel' st' ;; eof ;;; ret st'')%parser (mkIn R p' 0)
      /\ length R < fuel' /\ DS.Inv st' S' /\ absS S' = Sa'.
  Proof.
    intros Hls HR Hfold. pose proof (lines_txt_head ls R Hls HR) as Hh.
    set (st0 := on_ws state_new (0, 0)%N).
    assert (HI0 : DS.Inv st0 D.sstate0) by (apply DM.Inv_on_ws, DS.Inv_init).
    destruct (doc_loop_sim ls R Hls HR _ st0 D.sstate0 0%N Sa' HI0 (Nat.lt_succ_diag_r _) Hfold)
      as (st' & S' & p' & fuel' & El & Hf' & HI' & Ha').
    exists st', S', p', fuel'. split; [|auto].
    set (T := lines_txt ls ++ R) in *. unfold document.
    assert (Hbom : opt (lit bom) (mkIn T 0%N 0) = Ok None (mkIn T 0%N 0)).
    { eapply opt_bt. apply lit_no. destruct T as [|b tl]; [reflexivity|]. destruct Hh as [_ Hb]. unfold bom. cbn [strip_prefix].
      rewrite byte_eqb_sym, Hb. reflexivity. }
    rewrite (bind_ok _ _ _ _ _ Hbom).
    rewrite (bind_ok _ _ _ st0 (mkIn T 0%N 0)); [|apply parse_ws_none, Hh].
    unfold bind at 1. cbn [rest]. rewrite El. reflexivity.
  Qed.

  Theorem parse_lines ls Tabs cp :
    Forall (line_ok ftext) ls -> D.spec_fold false D.sstate0 (lines_stmts ls) = D.ROk (Tabs, cp) ->
    exists d, parse_document (lines_txt ls) = POk d /\ DB.mok_tbl (doc_root d) = true
              /\ map_tree abs_value (DB.abs_tbl (doc_root d)) = Tabs.
  Proof.
    intros Hls Hfold.
    destruct (document_lines ls [] (Tabs, cp) Hls I Hfold) as (st' & [T' cp'] & p' & fuel' & Ed & Hf' & HI' & Ha').
    rewrite app_nil_r in Ed. destruct fuel' as [|f]; [inversion Hf'|].
    assert (Hdoc : document (mkIn (lines_txt ls) 0%N 0) = Ok st' (mkIn [] p' 0)) by (rewrite Ed; reflexivity).
    destruct (DS.finalize_sim st' T' cp' HI') as (root' & Ef & Habs & Hmok).
    exists (mkDoc root' (match st_trailing st' with Some sp0 => raw_with_span sp0 | None => REmpty end)).
    split; [|split; [exact Hmok|]].
    2:{ cbn [doc_root]. rewrite Habs. unfold absS, map_state in Ha'. cbn [fst snd] in Ha'. congruence. }
    unfold parse_document, parse_all, new_input. rewrite (bind_ok _ _ _ _ _ Hdoc).
    rewrite (bind_ok _ _ _ _ _ (eof_nil p' 0)). cbn [ret]. rewrite Ef. reflexivity.
  Qed.

  (* accepted lines followed by a header of LIMIT keys or more: refused at that header *)
  Theorem parse_lines_deep_header ls arr path R Sa' :
    Forall (line_ok ftext) ls -> D.spec_fold false D.sstate0 (lines_stmts ls) = D.ROk Sa' ->
    path <> [] -> Forall key_ok path -> LIMIT <= length path ->
    exists e at_, parse_document (lines_txt ls ++ line_txt ftext (LHeader arr path) ++ R) = PErr e at_.
  Proof.
    intros Hls Hfold Hne Hk Hlen.
    assert (HR : lhead (line_txt ftext (LHeader arr path) ++ R)) by (destruct arr; split; reflexivity).
    destruct (document_lines ls _ Sa' Hls HR Hfold) as (st' & S' & p' & fuel' & Ed & Hf' & _ & _).
    destruct fuel' as [|f]; [inversion Hf'|].
    destruct (doc_line_header_limit ftext st' arr path R p' Hne Hk Hlen) as (e & i' & Ec).
    exists e, (Some (pos i')). unfold parse_document, parse_all, new_input.
    unfold bind at 1. rewrite Ed. unfold bind at 1. cbn [doc_loop]. rewrite Ec. reflexivity.
  Qed.
End Document.
