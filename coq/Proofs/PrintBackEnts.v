(* Proofs/PrintBackEnts.v — C03, class (c): the tables Display visits (Model/Encode.v nested_tables)
   as a structural function of the tree (`ents`), independent of the fuel, and compatible with the
   substitution of spans (`ttbl`). *)
From TV Require Import Base.Prelude Gen.Consts.
From TV Require Import Model.Tree Model.Encode.
From TV Require Import Proofs.SpansDefs Proofs.PrintBackBase Proofs.PrintBackValue Proofs.PrintBackDoc Proofs.PrintBackSort.
From TV Require Import Proofs.ModelFacts.
Require Import Lia ZifyBool ZifyN ZifyNat Sorting.Sorted Sorting.Permutation.
From TV Require Import Base.ListFacts.

(* ---- the entries of a table: itself (unless made by dotted keys), then those of its sub-tables ------------ *)
Fixpoint ents (t : tbl) (p : list key) (a : bool) {struct t} : list entry :=
  match t with
  | Tbl items _ _ dt _ _ =>
    (if dt then [] else [(t, p, a)]) ++
    (fix go (l : list (key * item)) : list entry :=
       match l with [] => [] | (k, it) :: tl => ients it (p ++ [k]) ++ go tl end) items
  end
with ients (it : item) (p : list key) {struct it} : list entry :=
  match it with
  | ITable sub => ents sub p false
  | IAot ts _ => (fix goa (l : list tbl) : list entry := match l with [] => [] | sub :: tl => ents sub p true ++ goa tl end) ts
  | _ => []
  end.

Definition sub_ents (items : list (key * item)) (p : list key) : list entry :=
  flat_map (fun kv => ients (snd kv) (p ++ [fst kv])) items.

Lemma ents_eq t p a : ents t p a = (if t_dotted t then [] else [(t, p, a)]) ++ sub_ents (t_items t) p.
Proof.
  destruct t as [items d im dt pos sp]. cbn [ents t_dotted t_items]. f_equal. unfold sub_ents.
  induction items as [|[k it] tl IH]; [reflexivity|]. cbn [flat_map fst snd]. rewrite <- IH. reflexivity.
Qed.

Lemma ients_aot ts sp p : ients (IAot ts sp) p = flat_map (fun sub => ents sub p true) ts.
Proof. cbn [ients]. induction ts as [|t tl IH]; [reflexivity|]. cbn [flat_map]. rewrite <- IH. reflexivity. Qed.

Lemma ients_table t p : ients (ITable t) p = ents t p false.
Proof. reflexivity. Qed.

(* ---- enough fuel ------------------------------------------------------------------------------------------- *)
Lemma nested_tables_ents : forall f t p a, tbl_size t < f -> nested_tables f t p a = ents t p a.
Proof.
  induction f as [|f IH]; intros t p a Hf; [lia|]. rewrite ents_eq. cbn [nested_tables]. f_equal. unfold sub_ents.
  apply flat_map_ext_in. intros [k it] Hin. cbn [fst snd].
  assert (Hsz : item_size it <= f).
  { pose proof (kv_size_in (t_items t) (k, it) Hin) as H. cbn [snd] in H. destruct t as [items d im dt pos sp]. cbn [tbl_size t_items] in *. lia. }
  destruct it as [|v|sub|ts sp]; try reflexivity.
  - cbn [item_size] in Hsz. rewrite ients_table. apply IH. lia.
  - rewrite ients_aot. apply flat_map_ext_in. intros sub Hs. apply IH.
    pose proof (tbl_size_in ts sub Hs). cbn [item_size] in Hsz. lia.
Qed.

(* ---- substitution of spans ------------------------------------------------------------------------------------ *)
Definition tent (s : bytes) (e : entry) : entry := let '(t, p, a) := e in (ttbl s t, map (tkey s) p, a).

Lemma ttbl_fields s t :
  ttbl s t = Tbl (map (tkv s) (t_items t)) (tdecor s (t_decor t)) (t_implicit t) (t_dotted t) (t_position t) None.
Proof. destruct t. apply ttbl_unfold. Qed.

Lemma titem_aot s ts sp : titem s (IAot ts sp) = IAot (map (ttbl s) ts) None.
Proof. reflexivity. Qed.

Lemma ents_ttbl s :
  (forall v : value, True)
  /\ (forall it, forall p, ients (titem s it) (map (tkey s) p) = map (tent s) (ients it p))
  /\ (forall t, forall p a, ents (ttbl s t) (map (tkey s) p) a = map (tent s) (ents t p a)).
Proof.
  apply tree_ind3; try (intros; exact I).
  - intros p. reflexivity.
  - intros v _ p. reflexivity.
  - intros t IH p. change (titem s (ITable t)) with (ITable (ttbl s t)). rewrite !ients_table. apply IH.
  - intros ts sp IH p. rewrite titem_aot, !ients_aot. rewrite !flat_map_concat_map, concat_map, !map_map. f_equal.
    apply map_ext_Forall. eapply Forall_impl; [|exact IH]. intros t Ht. apply Ht.
  - intros items d im dt pos sp IH p a. rewrite (ents_eq (ttbl s _)), (ents_eq (Tbl _ _ _ _ _ _)), ttbl_fields. cbn [t_dotted t_items].
    assert (Hsub : sub_ents (map (tkv s) items) (map (tkey s) p) = map (tent s) (sub_ents items p)).
    { unfold sub_ents. rewrite !flat_map_concat_map, concat_map, !map_map. f_equal.
      apply map_ext_Forall. eapply Forall_impl; [|exact IH]. intros [k it] Hk. unfold tkv. cbn [fst snd] in *.
      rewrite <- Hk, map_app. reflexivity. }
    rewrite Hsub, map_app. f_equal. destruct dt; [reflexivity|]. cbn [map tent]. rewrite ttbl_unfold. reflexivity.
Qed.

Lemma ents_ttbl_root s t : ents (ttbl s t) [] false = map (tent s) (ents t [] false).
Proof. apply (proj2 (proj2 (ents_ttbl s)) t [] false). Qed.

(* ---- trees of sections: no table made by dotted keys, plain values ------------------------------------------- *)
Fixpoint sec_tbl (t : tbl) : bool :=
  match t with
  | Tbl items _ _ dt _ _ =>
    negb dt && (fix go (l : list (key * item)) : bool := match l with [] => true | (_, it) :: tl => sec_item it && go tl end) items
  end
with sec_item (it : item) : bool :=
  match it with
  | INone => false
  | IValue v => vplain v
  | ITable sub => sec_tbl sub
  | IAot ts _ => (fix goa (l : list tbl) : bool := match l with [] => true | sub :: tl => sec_tbl sub && goa tl end) ts
  end.

Lemma sec_tbl_eq t : sec_tbl t = negb (t_dotted t) && forallb (fun kv => sec_item (snd kv)) (t_items t).
Proof.
  destruct t as [items d im dt pos sp]. cbn [sec_tbl t_dotted t_items]. f_equal.
  induction items as [|[k it] tl IH]; [reflexivity|]. cbn [forallb snd]. rewrite <- IH. reflexivity.
Qed.

Lemma sec_item_aot ts sp : sec_item (IAot ts sp) = forallb sec_tbl ts.
Proof. cbn [sec_item]. induction ts as [|t tl IH]; [reflexivity|]. cbn [forallb]. rewrite <- IH. reflexivity. Qed.

Definition esec (e : entry) : Prop := sec_tbl (fst (fst e)) = true.
Definition epath (e : entry) : list key := snd (fst e).

Lemma ents_sec :
  (forall v : value, True)
  /\ (forall it, forall p, sec_item it = true -> p <> [] -> Forall (fun e => esec e /\ epath e <> []) (ients it p))
  /\ (forall t, forall p a, sec_tbl t = true -> p <> [] -> Forall (fun e => esec e /\ epath e <> []) (ents t p a)).
Proof.
  apply tree_ind3; try (intros; exact I).
  - intros; constructor.
  - intros; constructor.
  - intros t IH p Hs Hp. rewrite ients_table. apply IH; assumption.
  - intros ts sp IH p Hs Hp. rewrite ients_aot. rewrite sec_item_aot in Hs. rewrite forallb_forall in Hs.
    rewrite Forall_forall in *. intros e He. apply in_flat_map in He as (t & Ht & He).
    specialize (IH t Ht p true (Hs t Ht) Hp). rewrite Forall_forall in IH. apply IH, He.
  - intros items d im dt pos sp IH p a Hs Hp. rewrite ents_eq. pose proof Hs as Hs0. rewrite sec_tbl_eq in Hs. cbn [t_dotted t_items] in *.
    apply andb_true_iff in Hs as [Hd Hi]. destruct dt; [discriminate|]. apply Forall_app. split.
    + constructor; [|constructor]. split; [exact Hs0|exact Hp].
    + unfold sub_ents. rewrite forallb_forall in Hi. rewrite Forall_forall in *. intros e He. apply in_flat_map in He as ([k it] & Hk & He).
      cbn [fst snd] in He. specialize (IH (k, it) Hk (p ++ [k]) (Hi _ Hk)). cbn [snd] in IH.
      assert (Hne : p ++ [k] <> []) by (destruct p; discriminate). specialize (IH Hne). rewrite Forall_forall in IH. apply IH, He.
Qed.

Lemma sub_ents_sec t : sec_tbl t = true -> Forall (fun e => esec e /\ epath e <> []) (sub_ents (t_items t) []).
Proof.
  intro Hs. rewrite sec_tbl_eq in Hs. apply andb_true_iff in Hs as [_ Hi]. rewrite forallb_forall in Hi.
  unfold sub_ents. rewrite Forall_forall. intros e He. apply in_flat_map in He as ([k it] & Hk & He). cbn [fst snd app] in He.
  pose proof (proj1 (proj2 ents_sec) it [k] (Hi _ Hk) ltac:(discriminate)) as H. rewrite Forall_forall in H. apply H, He.
Qed.

(* ---- the key/value lines of a section ------------------------------------------------------------------------ *)
Definition vals (items : list (key * item)) : list (key * value) :=
  flat_map (fun kv => match snd kv with IValue v => [(fst kv, v)] | _ => [] end) items.
Definition ktext (s : bytes) (items : list (key * item)) : bytes := flat_map (kv_line s) (vals items).

Lemma table_values_sec s f items : forallb (fun kv => sec_item (snd kv)) items = true ->
  table_values (S f) [] (map (tkv s) items) = map (fun kv => ([tkey s (fst kv)], tvalue s (snd kv))) (vals items).
Proof.
  induction items as [|[k it] tl IH]; [reflexivity|]. cbn [forallb snd]. intro H. apply andb_true_iff in H as [Hi Ht].
  cbn [map]. change (table_values (S f) [] (tkv s (k, it) :: map (tkv s) tl))
    with ((let path := [] ++ [fst (tkv s (k, it))] in
           match snd (tkv s (k, it)) with
           | ITable (Tbl sub _ _ true _ _) => table_values f path sub
           | IValue (VInline sub _ _ true _ _) => inline_values f path sub
           | IValue v0 => [(path, v0)]
           | _ => []
           end) ++ table_values (S f) [] (map (tkv s) tl)).
  rewrite (IH Ht). unfold tkv. cbn [fst snd app]. unfold vals. cbn [flat_map snd fst]. fold (vals tl).
  destruct it as [|v|sub|ts sp]; cbn [sec_item] in Hi; try discriminate.
  - rewrite titem_value. pose proof (vplain_undot v Hi) as Hu. rewrite <- (undot_tvalue s v) in Hu. cbn [map app fst snd].
    destruct (tvalue s v) as [x r d|vs tr c d sp|its pre im dt d sp]; try reflexivity.
    cbn [undot] in Hu. destruct dt; [discriminate|reflexivity].
  - change (titem s (ITable sub)) with (ITable (ttbl s sub)). rewrite ttbl_fields.
    rewrite sec_tbl_eq in Hi. apply andb_true_iff in Hi as [Hd _]. destruct (t_dotted sub); [discriminate|]. reflexivity.
  - rewrite titem_aot. reflexivity.
Qed.

(* ---- what one table prints ---------------------------------------------------------------------------------- *)
Definition no_vals (t : tbl) : bool := match vals (t_items t) with [] => true | _ => false end.
(* a table below the root prints if it is an array element, was defined by a header, or holds values *)
Definition svis (e : entry) : bool := let '(t, p, a) := e in a || negb (t_implicit t && no_vals t).
Definition hdr_open (a : bool) : bytes := if a then [x5b; x5b] else [x5b].
Definition hdr_close (a : bool) : bytes := if a then [x5d; x5d] else [x5d].
(* the header as printed: comments of the key, [ key path ] *)
Definition hdr_text (s : bytes) (p : list key) (a : bool) : bytes :=
  encode_key_comments (map (tkey s) p) ++ hdr_open a
  ++ encode_header_key_path (map (tkey s) p) DEFAULT_KEY_PATH_DECOR ++ hdr_close a.
Definition etxt (s : bytes) (e : entry) : bytes :=
  let '(t, p, a) := e in
  match p with
  | [] => ktext s (t_items t)
  | _ => raw_encode (traw s (match d_prefix (t_decor t) with Some r => r | None => REmpty end)) []
         ++ hdr_text s p a
         ++ raw_encode (traw s (match d_suffix (t_decor t) with Some r => r | None => REmpty end)) [] ++ [x0a]
         ++ ktext s (t_items t)
  end.
Definition decor_some (d : decor) : Prop := d_prefix d <> None /\ d_suffix d <> None.

Lemma children_sec s t : sec_tbl t = true ->
  table_values (S (tbl_size (ttbl s t))) [] (t_items (ttbl s t)) = map (fun kv => ([tkey s (fst kv)], tvalue s (snd kv))) (vals (t_items t)).
Proof.
  intro Hs. rewrite sec_tbl_eq in Hs. apply andb_true_iff in Hs as [_ Hi]. rewrite ttbl_fields at 2. cbn [t_items].
  apply table_values_sec, Hi.
Qed.

Lemma lines_ktext s (l : list (key * value)) :
  flat_map (fun '(kp, v) => encode_key_path kp DEFAULT_KEY_DECOR ++ [x3d] ++ encode_value (S (value_size v)) v DEFAULT_VALUE_DECOR ++ [x0a])
           (map (fun kv => ([tkey s (fst kv)], tvalue s (snd kv))) l)
  = flat_map (kv_line s) l.
Proof.
  induction l as [|[k v] tl IH]; [reflexivity|]. cbn [map flat_map]. rewrite IH. unfold kv_line. cbn [fst snd].
  repeat first [rewrite <- app_assoc | progress cbn [app]]. reflexivity.
Qed.

(* a table that does not print *)
Lemma visit_invisible s t p a b : sec_tbl t = true -> p <> [] -> svis (t, p, a) = false ->
  visit_table (ttbl s t) (map (tkey s) p) a b = ([], b).
Proof.
  intros Hs Hp Hv. unfold visit_table. rewrite (children_sec s t Hs). cbn [svis] in Hv.
  apply orb_false_iff in Hv as [-> Hv]. apply negb_false_iff, andb_true_iff in Hv as [Him Hn].
  unfold no_vals in Hn. destruct (vals (t_items t)) as [|x l] eqn:Ev; [|discriminate]. cbn [map].
  rewrite ttbl_fields. cbn [t_implicit]. rewrite Him. cbn [andb negb].
  destruct (map (tkey s) p) eqn:Ep; [destruct p; [congruence|discriminate]|]. reflexivity.
Qed.

(* a table that prints *)
Lemma visit_visible s t p a b : sec_tbl t = true -> (p = [] \/ (svis (t, p, a) = true /\ decor_some (t_decor t))) ->
  fst (visit_table (ttbl s t) (map (tkey s) p) a b) = etxt s (t, p, a).
Proof.
  intros Hs Hp. unfold visit_table. rewrite (children_sec s t Hs). rewrite lines_ktext. fold (ktext s (t_items t)).
  destruct Hp as [-> | [Hv [Hd1 Hd2]]].
  - cbn [map etxt]. destruct (match map _ (vals (t_items t)) with [] => true | _ => false end); reflexivity.
  - destruct p as [|k0 p0]; [cbn [map etxt]; destruct (match map _ (vals (t_items t)) with [] => true | _ => false end); reflexivity|].
    cbn [svis] in Hv. set (P := map (tkey s) (k0 :: p0)). assert (EP : exists q0 ql, P = q0 :: ql) by (eexists _, _; reflexivity).
    destruct EP as (q0 & ql & EP). cbn [etxt]. fold P. unfold hdr_text. fold P.
    assert (Hh : forall o c, (let default := if b then ([], snd DEFAULT_TABLE_DECOR) else DEFAULT_TABLE_DECOR in
                     decor_prefix (t_decor (ttbl s t)) (fst default) ++ encode_key_comments P ++ o
                     ++ encode_header_key_path P DEFAULT_KEY_PATH_DECOR ++ c
                     ++ decor_suffix (t_decor (ttbl s t)) (snd default) ++ [x0a])
                    = raw_encode (traw s (match d_prefix (t_decor t) with Some r => r | None => REmpty end)) []
                      ++ (encode_key_comments P ++ o ++ encode_header_key_path P DEFAULT_KEY_PATH_DECOR ++ c)
                      ++ raw_encode (traw s (match d_suffix (t_decor t) with Some r => r | None => REmpty end)) [] ++ [x0a]).
    { intros o c. cbv zeta. rewrite ttbl_fields. cbn [t_decor]. unfold decor_prefix, decor_suffix, tdecor. cbn [d_prefix d_suffix].
      destruct (d_prefix (t_decor t)) as [r1|]; [|congruence]. destruct (d_suffix (t_decor t)) as [r2|]; [|congruence]. cbn [toraw].
      assert (Hraw : forall r x y, raw_encode (traw s r) x = raw_encode (traw s r) y).
      { intros r x y. destruct r as [|u|u v]; cbn [traw]; try reflexivity. unfold raw_of_bytes. destruct (slice s u v); reflexivity. }
      rewrite (Hraw r1 _ []), (Hraw r2 _ []). rewrite <- !app_assoc. reflexivity. }
    rewrite EP. rewrite <- EP.
    destruct a.
    + rewrite EP. cbn [fst]. rewrite <- EP. cbv zeta in Hh. rewrite (Hh [x5b; x5b] [x5d; x5d]). unfold hdr_open, hdr_close. rewrite <- !app_assoc. reflexivity.
    + cbn [orb] in Hv. rewrite ttbl_fields. cbn [t_implicit].
      assert (Hvis : negb (t_implicit t && match map (fun kv : key * value => ([tkey s (fst kv)], tvalue s (snd kv))) (vals (t_items t)) with [] => true | _ => false end) = true).
      { unfold no_vals in Hv. destruct (vals (t_items t)); exact Hv. }
      rewrite Hvis. rewrite EP. cbn [fst]. rewrite <- EP. rewrite <- ttbl_fields. cbv zeta in Hh. rewrite (Hh [x5b] [x5d]).
      unfold hdr_open, hdr_close. rewrite <- !app_assoc. reflexivity.
Qed.
