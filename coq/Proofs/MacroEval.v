(* Proofs/MacroEval.v — C19: one expansion step of `invoke` per kind of rule body, and the judgement
   `Ev cur input r n`: every fuel >= n makes `invoke` return r on this input (r is never EFuel in uses).
   Fuel is the DEPTH of the expansion (a value is expanded inside the step of its statement). *)
From TV Require Import Base.Prelude Model.Macro.

Definition Ev (cur : mval) (input : list tt) (r : eres mval) (n : nat) : Prop :=
  forall f, n <= f -> invoke f cur input = r.

Lemma Ev_mono : forall cur input r n m, Ev cur input r n -> n <= m -> Ev cur input r m.
Proof. intros cur input r n m H Hle f Hf. apply H. lia. Qed.

Lemma Ev_nothing : forall cur input e, first_match rules input = Some (BNothing, e) -> Ev cur input (EOk cur) 1.
Proof. intros cur input e H f Hf. destruct f as [|f]; [lia|]. cbn [invoke]. rewrite H. reflexivity. Qed.

Lemma Ev_invoke : forall cur input q e r n, first_match rules input = Some (BInvoke q, e) ->
  Ev cur (transcribe_seq q e) r n -> Ev cur input r (S n).
Proof.
  intros cur input q e r n H H1 f Hf. destruct f as [|f]; [lia|]. cbn [invoke]. rewrite H. apply H1. lia.
Qed.

Definition keys_of_env (top : bool) (x : var) (e : env) : eres (list bytes) :=
  pre <== (if top then path_strs (env_tts Vpath e) else EOk []) ;;
  ks <== key_strs (env_segs x e) ;;
  EOk (pre ++ ks).

Lemma Ev_insert : forall cur input top next e path v val cur' r n1 n2,
  first_match rules input = Some (BInsert top next, e) ->
  keys_of_env top Vk e = EOk path ->
  env_tt Vv e = EOk v ->
  Ev (MTab []) (state_toks id_value ++ [v]) (EOk val) n1 ->
  insert_toml cur path val = Some cur' ->
  Ev cur' (transcribe_seq next e) r n2 ->
  Ev cur input r (S (Nat.max n1 n2)).
Proof.
  intros cur input top next e path v val cur' r n1 n2 H Hk Hv H1 Hi H2 f Hf.
  destruct f as [|f]; [lia|]. cbn [invoke]. rewrite H.
  unfold keys_of_env in Hk. rewrite Hk. cbn [ebind]. rewrite Hv. cbn [ebind].
  rewrite (H1 f) by lia. cbn [ebind]. rewrite Hi. apply H2. lia.
Qed.

Lemma Ev_insert_dt : forall cur input top next e path val cur' r n,
  first_match rules input = Some (BInsertDt top next, e) ->
  keys_of_env top Vk e = EOk path ->
  datetime_value (env_tts Vdatetime e) = EOk val ->
  insert_toml cur path val = Some cur' ->
  Ev cur' (transcribe_seq next e) r n ->
  Ev cur input r (S n).
Proof.
  intros cur input top next e path val cur' r n H Hk Hv Hi H2 f Hf.
  destruct f as [|f]; [lia|]. cbn [invoke]. rewrite H.
  unfold keys_of_env in Hk. rewrite Hk. cbn [ebind]. rewrite Hv. cbn [ebind]. rewrite Hi. apply H2. lia.
Qed.

Lemma Ev_arrheader : forall cur input e path rt cur' r n,
  first_match rules input = Some (BArrHeader, e) ->
  key_strs (env_segs Vpath e) = EOk path ->
  env_tt Vroot e = EOk rt ->
  push_toml cur path = Some cur' ->
  Ev cur' (state_toks id_toplevel ++ [rt; TGroup DBracket (List.map path_tok path)] ++ env_tts Vrest e) r n ->
  Ev cur input r (S n).
Proof.
  intros cur input e path rt cur' r n H Hk Hr Hp H2 f Hf.
  destruct f as [|f]; [lia|]. cbn [invoke]. rewrite H. rewrite Hk. cbn [ebind]. rewrite Hr. cbn [ebind]. rewrite Hp.
  apply H2. lia.
Qed.

Lemma Ev_tabheader : forall cur input e path rt cur' r n,
  first_match rules input = Some (BTabHeader, e) ->
  key_strs (env_segs Vpath e) = EOk path ->
  env_tt Vroot e = EOk rt ->
  insert_table_toml cur path = Some cur' ->
  Ev cur' (state_toks id_toplevel ++ [rt; TGroup DBracket (List.map path_tok path)] ++ env_tts Vrest e) r n ->
  Ev cur input r (S n).
Proof.
  intros cur input e path rt cur' r n H Hk Hr Hp H2 f Hf.
  destruct f as [|f]; [lia|]. cbn [invoke]. rewrite H. rewrite Hk. cbn [ebind]. rewrite Hr. cbn [ebind]. rewrite Hp.
  apply H2. lia.
Qed.

Lemma Ev_arrpush : forall l input next e v val r n1 n2,
  first_match rules input = Some (BArrPush next, e) ->
  env_tt Vv e = EOk v ->
  Ev (MTab []) (state_toks id_value ++ [v]) (EOk val) n1 ->
  Ev (MArr (l ++ [val])) (transcribe_seq next e) r n2 ->
  Ev (MArr l) input r (S (Nat.max n1 n2)).
Proof.
  intros l input next e v val r n1 n2 H Hv H1 H2 f Hf.
  destruct f as [|f]; [lia|]. cbn [invoke]. rewrite H. rewrite Hv. cbn [ebind].
  rewrite (H1 f) by lia. cbn [ebind]. apply H2. lia.
Qed.

Lemma Ev_arrpush_dt : forall l input next e val r n,
  first_match rules input = Some (BArrPushDt next, e) ->
  datetime_value (env_tts Vdatetime e) = EOk val ->
  Ev (MArr (l ++ [val])) (transcribe_seq next e) r n ->
  Ev (MArr l) input r (S n).
Proof.
  intros l input next e val r n H Hv H2 f Hf.
  destruct f as [|f]; [lia|]. cbn [invoke]. rewrite H. rewrite Hv. cbn [ebind]. apply H2. lia.
Qed.

Lemma Ev_valtable : forall cur input q e r n,
  first_match rules input = Some (BValTable q, e) ->
  Ev (MTab []) (transcribe_seq q e) r n -> Ev cur input r (S n).
Proof.
  intros cur input q e r n H H1 f Hf. destruct f as [|f]; [lia|]. cbn [invoke]. rewrite H. apply H1. lia.
Qed.

Lemma Ev_valarray : forall cur input q e r n,
  first_match rules input = Some (BValArray q, e) ->
  Ev (MArr []) (transcribe_seq q e) r n -> Ev cur input r (S n).
Proof.
  intros cur input q e r n H H1 f Hf. destruct f as [|f]; [lia|]. cbn [invoke]. rewrite H. apply H1. lia.
Qed.

Lemma Ev_valconst : forall cur input c e,
  first_match rules input = Some (BValConst c, e) -> Ev cur input (EOk (MFloat c)) 1.
Proof. intros cur input c e H f Hf. destruct f as [|f]; [lia|]. cbn [invoke]. rewrite H. reflexivity. Qed.

Lemma Ev_valother : forall cur input e v r,
  first_match rules input = Some (BValOther, e) ->
  env_tt Vv e = EOk v -> rust_expr_value v = r -> Ev cur input r 1.
Proof.
  intros cur input e v r H Hv Hr f Hf. destruct f as [|f]; [lia|]. cbn [invoke]. rewrite H, Hv. cbn [ebind]. exact Hr.
Qed.

Lemma Ev_valneg : forall cur input e v r,
  first_match rules input = Some (BValNeg, e) ->
  env_tt Vv e = EOk v -> rust_neg_value v = r -> Ev cur input r 1.
Proof.
  intros cur input e v r H Hv Hr f Hf. destruct f as [|f]; [lia|]. cbn [invoke]. rewrite H, Hv. cbn [ebind]. exact Hr.
Qed.

(* the fuel the model gives itself is enough whenever some n below it is *)
Lemma Ev_macro_eval : forall ts r n, ts <> [] ->
  Ev (MTab []) (state_toks id_toplevel ++ [TIdent id_root; TGroup DBracket []] ++ ts) r n ->
  n <= default_fuel ts -> macro_eval ts = r.
Proof.
  intros ts r n Hne H Hn. unfold macro_eval, toml_macro. destruct ts as [|t ts']; [contradiction|]. apply H. exact Hn.
Qed.
