(* Proofs/PrintBackDAll.v — C03, class (d): everything a tree prints, as a multiset without paths: one item
   per header (tables defined by a header, elements of arrays of tables) and one per key/value pair,
   wherever it sits among the tables that dotted keys made.  How descend_path changes it. *)
From TV Require Import Base.Prelude.
From TV Require Import Model.Tree.
From TV Require Import
                       Proofs.PrintBackSecs.
From TV Require Import Proofs.KvFacts.
From TV Require Import Proofs.DocumentOps.
Require Import Lia ZifyBool ZifyN ZifyNat Sorting.Sorted Sorting.Permutation.

Inductive pitem : Type :=
| PH (start : option N) (q : option N) (a : bool) (d : decor)
| PL (k : key) (v : value).

Definition span_start (t : tbl) : option N := match t_span t with Some sp => Some (fst sp) | None => None end.
Definition hdr (t : tbl) (a : bool) : list pitem :=
  if t_dotted t || (t_implicit t && negb a) then [] else [PH (span_start t) (t_position t) a (t_decor t)].

Fixpoint ALL (t : tbl) (a : bool) {struct t} : list pitem :=
  match t with
  | Tbl items _ _ _ _ _ =>
    hdr t a ++ (fix go (l : list (key * item)) : list pitem := match l with [] => [] | (k, it) :: tl => ALLit k it ++ go tl end) items
  end
with ALLit (k : key) (it : item) {struct it} : list pitem :=
  match it with
  | INone => []
  | IValue v => [PL k v]
  | ITable sub => ALL sub false
  | IAot ts _ => (fix goa (l : list tbl) : list pitem := match l with [] => [] | sub :: tl => ALL sub true ++ goa tl end) ts
  end.
Definition ALLI (items : list (key * item)) : list pitem := flat_map (fun kv => ALLit (fst kv) (snd kv)) items.

Lemma ALL_eq t a : ALL t a = hdr t a ++ ALLI (t_items t).
Proof.
  destruct t as [items d im dt pos sp]. cbn [ALL t_items]. f_equal. unfold ALLI.
  induction items as [|[k it] tl IH]; [reflexivity|]. cbn [flat_map fst snd]. rewrite <- IH. reflexivity.
Qed.
Lemma ALLit_aot k ts sp : ALLit k (IAot ts sp) = flat_map (fun sub => ALL sub true) ts.
Proof. cbn [ALLit]. induction ts as [|t tl IH]; [reflexivity|]. cbn [flat_map]. rewrite <- IH. reflexivity. Qed.
Lemma ALLI_app a b : ALLI (a ++ b) = ALLI a ++ ALLI b.
Proof. apply flat_map_app. Qed.

Lemma ALLI_set m k k0 it it' D1 D2 : kv_get m k = Some (k0, it) ->
  Permutation (ALLit k0 it' ++ D1) (ALLit k0 it ++ D2) -> Permutation (ALLI (kv_set m k it') ++ D1) (ALLI m ++ D2).
Proof.
  intros Hg Hp. destruct (kv_get_split m k k0 it Hg) as (A & B & -> & _ & Hs & _). rewrite Hs, !ALLI_app.
  change (ALLI ((k0, it') :: B)) with (ALLit k0 it' ++ ALLI B). change (ALLI ((k0, it) :: B)) with (ALLit k0 it ++ ALLI B).
  rewrite <- !app_assoc. apply Permutation_app_head.
  transitivity (ALLI B ++ ALLit k0 it' ++ D1); [rewrite !app_assoc; apply Permutation_app_tail, Permutation_app_comm|].
  transitivity (ALLI B ++ ALLit k0 it ++ D2); [apply Permutation_app_head, Hp|].
  rewrite !app_assoc. apply Permutation_app_tail, Permutation_app_comm.
Qed.

(* the fields a header item is made of *)
Definition hframe (t t' : tbl) : Prop :=
  t_decor t' = t_decor t /\ t_implicit t' = t_implicit t /\ t_dotted t' = t_dotted t /\ t_position t' = t_position t /\ span_start t' = span_start t.
Lemma hframe_refl t : hframe t t.
Proof. repeat split. Qed.
Lemma hframe_set_items t m : hframe t (t_set_items t m).
Proof. destruct t. repeat split. Qed.
Lemma hframe_hdr t t' a : hframe t t' -> hdr t' a = hdr t a.
Proof. intros (H1 & H2 & H3 & H4 & H5). unfold hdr. rewrite H1, H2, H3, H4, H5. reflexivity. Qed.

(* ---- descend_path, for headers (dotted = false) and for dotted keys (dotted = true) ----------------------------- *)
Lemma dctx_hframe d p r r' par par' : dctx_rel d p r r' par par' -> hframe par par' -> hframe r r'.
Proof. induction 1; intro Hf; [exact Hf|apply hframe_set_items..]. Qed.

Lemma hdr_implicitd d sub : hframe (implicitd d) sub -> hdr sub false = [].
Proof. intro H. rewrite (hframe_hdr _ _ false H). unfold hdr, implicitd. cbn [t_dotted t_implicit negb andb]. rewrite orb_true_r. reflexivity. Qed.

Lemma dctx_perm d p r r' par par' D1 D2 : dctx_rel d p r r' par par' -> hframe par par' ->
  Permutation (ALLI (t_items par') ++ D1) (ALLI (t_items par) ++ D2) -> Permutation (ALLI (t_items r') ++ D1) (ALLI (t_items r) ++ D2).
Proof.
  induction 1 as [t t'|t k p sub par par' G Hc IH|t k p k0 sub sub' par par' G Hc IH|t k p k0 ts sp last rinit last' par par' G Er Hc IH]; intros Hf Hp.
  - exact Hp.
  - rewrite items_set_items. unfold kv_push. rewrite ALLI_app. change (ALLI [(k, ITable sub)]) with (ALL sub false ++ []). rewrite app_nil_r, ALL_eq.
    rewrite (hdr_implicitd d sub (dctx_hframe _ _ _ _ _ _ Hc Hf)). cbn [app]. rewrite <- app_assoc.
    apply Permutation_app_head. specialize (IH Hf Hp). cbn [implicitd t_items ALLI flat_map app] in IH. exact IH.
  - rewrite items_set_items. apply (ALLI_set _ _ _ _ _ _ _ G). cbn [ALLit]. rewrite !ALL_eq, (hframe_hdr _ _ false (dctx_hframe _ _ _ _ _ _ Hc Hf)).
    rewrite <- !app_assoc. apply Permutation_app_head, IH; assumption.
  - rewrite items_set_items. apply (ALLI_set _ _ _ _ _ _ _ G). rewrite !ALLit_aot.
    assert (Ets : ts = rev rinit ++ [last]) by (rewrite <- (rev_involutive ts), Er; reflexivity).
    rewrite Ets. cbn [rev]. rewrite !flat_map_app. cbn [flat_map]. rewrite !app_nil_r, !ALL_eq, (hframe_hdr _ _ true (dctx_hframe _ _ _ _ _ _ Hc Hf)).
    rewrite <- !app_assoc. apply Permutation_app_head, Permutation_app_head, IH; assumption.
Qed.

(* ---- unique keys; the keys of tables satisfy K ------------------------------------------------------------------ *)
Section UK2.
  Variable K : key -> Prop.
  Fixpoint uk2 (t : tbl) {struct t} : Prop :=
    match t with
    | Tbl items _ _ _ _ _ =>
      NoDup (map kk items) /\
      (fix go (l : list (key * item)) : Prop := match l with [] => True | (k, it) :: tl => (is_tab it = true -> K k) /\ uki2 it /\ go tl end) items
    end
  with uki2 (it : item) {struct it} : Prop :=
    match it with
    | ITable sub => uk2 sub
    | IAot ts _ => (fix goa (l : list tbl) : Prop := match l with [] => True | sub :: tl => uk2 sub /\ goa tl end) ts
    | _ => True
    end.
  Definition uks2 (items : list (key * item)) : Prop := Forall (fun kv => (is_tab (snd kv) = true -> K (fst kv)) /\ uki2 (snd kv)) items.

  Lemma uk2_eq t : uk2 t <-> NoDup (map kk (t_items t)) /\ uks2 (t_items t).
  Proof.
    destruct t as [items d im dt pos sp]. cbn [uk2 t_items]. unfold uks2.
    assert (H : (fix go (l : list (key * item)) : Prop := match l with [] => True | (k, it) :: tl => (is_tab it = true -> K k) /\ uki2 it /\ go tl end) items
                <-> Forall (fun kv => (is_tab (snd kv) = true -> K (fst kv)) /\ uki2 (snd kv)) items).
    { induction items as [|[k it] tl IH]; [split; [constructor|auto]|]. rewrite Forall_cons_iff, <- IH. cbn [fst snd]. tauto. }
    rewrite H. reflexivity.
  Qed.
  Lemma uki2_aot ts sp : uki2 (IAot ts sp) <-> Forall uk2 ts.
  Proof. cbn [uki2]. induction ts as [|t tl IH]; [split; [constructor|auto]|]. rewrite Forall_cons_iff, <- IH. reflexivity. Qed.

  Lemma uks2_get m k k0 it : uks2 m -> kv_get m k = Some (k0, it) -> (is_tab it = true -> K k0) /\ uki2 it.
  Proof.
    intros Hu Hg. destruct (kv_get_split m k k0 it Hg) as (A & B & -> & _). unfold uks2 in Hu. apply Forall_app in Hu as [_ Hu].
    inversion Hu; subst. assumption.
  Qed.
  Lemma uks2_set m k k0 it0 it : uks2 m -> kv_get m k = Some (k0, it0) -> (is_tab it = true -> K k0) -> uki2 it -> uks2 (kv_set m k it).
  Proof.
    intros Hu Hg Hk Hi. destruct (kv_get_split m k k0 it0 Hg) as (A & B & -> & _ & Hs & _). rewrite Hs. unfold uks2 in *.
    apply Forall_app in Hu as [HA HB]. inversion HB; subst. apply Forall_app. split; [exact HA|]. constructor; [split; assumption|assumption].
  Qed.
  Lemma uks2_push m k it : uks2 m -> (is_tab it = true -> K k) -> uki2 it -> uks2 (kv_push m k it).
  Proof. intros Hu Hk Hi. apply Forall_app. split; [exact Hu|constructor; [split; assumption|constructor]]. Qed.
  Lemma uks2_remove m k : uks2 m -> uks2 (kv_remove m k).
  Proof.
    unfold uks2. induction m as [|[k1 v1] m IH]; intro Hu; [constructor|]. cbn [kv_remove]. inversion Hu; subst.
    destruct (bytes_eqb (k_key k1) k); [assumption|constructor; auto].
  Qed.

  Lemma uk2_implicitd d : uk2 (implicitd d).
  Proof. apply uk2_eq. split; constructor. Qed.
  Lemma uk2_set_items t m : NoDup (map kk m) -> uks2 m -> uk2 (t_set_items t m).
  Proof. intros H1 H2. apply uk2_eq. rewrite items_set_items. auto. Qed.

  Lemma dctx_uk2 d p r r' par par' : dctx_rel d p r r' par par' -> Forall K p -> uk2 r -> uk2 par /\ (uk2 par' -> uk2 r').
  Proof.
    induction 1 as [t t'|t k p sub par par' G Hc IH|t k p k0 sub sub' par par' G Hc IH|t k p k0 ts sp last rinit last' par par' G Er Hc IH]; intros HK Hu.
    - auto.
    - inversion HK as [|? ? Hk HK']; subst. destruct (IH HK' (uk2_implicitd d)) as [H1 H2]. split; [exact H1|]. intro Hp.
      apply uk2_eq in Hu as (Hn & Hs). apply uk2_set_items; [apply nodup_push; assumption|].
      apply uks2_push; [exact Hs|intros _; exact Hk|apply H2, Hp].
    - inversion HK as [|? ? Hk HK']; subst. apply uk2_eq in Hu as (Hn & Hs).
      destruct (uks2_get _ _ _ _ Hs G) as [Hk0 Hsub]. destruct (IH HK' Hsub) as [H1 H2]. split; [exact H1|]. intro Hp.
      apply uk2_set_items; [rewrite keys_set; exact Hn|]. apply (uks2_set _ _ _ _ _ Hs G); [intros _; apply Hk0; reflexivity|apply H2, Hp].
    - inversion HK as [|? ? Hk HK']; subst. apply uk2_eq in Hu as (Hn & Hs).
      destruct (uks2_get _ _ _ _ Hs G) as [Hk0 Hsub]. apply uki2_aot in Hsub.
      assert (Ets : ts = rev rinit ++ [last]) by (rewrite <- (rev_involutive ts), Er; reflexivity).
      rewrite Ets in Hsub. apply Forall_app in Hsub as [Hinit Hlast]. inversion Hlast as [|? ? Hl0 _]; subst.
      destruct (IH HK' Hl0) as [H1 H2]. split; [exact H1|]. intro Hp.
      apply uk2_set_items; [rewrite keys_set; exact Hn|]. apply (uks2_set _ _ _ _ _ Hs G); [intros _; apply Hk0; reflexivity|].
      apply uki2_aot. cbn [rev]. apply Forall_app. split; [exact Hinit|]. constructor; [apply H2, Hp|constructor].
  Qed.
  (* a new entry in the table reached: one more item, keys still unique *)
  Lemma dctx_push d p r r' par k it :
    dctx_rel d p r r' par (t_set_items par (kv_push (t_items par) k it)) -> Forall K p -> uk2 r ->
    kv_get (t_items par) (k_key k) = None -> (is_tab it = true -> K k) -> uki2 it ->
    hframe r r' /\ uk2 r' /\ Permutation (ALLI (t_items r')) (ALLI (t_items r) ++ ALLit k it).
  Proof.
    intros Hc Hp Hu G Hk Hi. destruct (dctx_uk2 _ _ _ _ _ _ Hc Hp Hu) as [Hupar Hup']. apply uk2_eq in Hupar as (Hn & Hs).
    split; [apply (dctx_hframe _ _ _ _ _ _ Hc (hframe_set_items _ _))|]. split.
    - apply Hup'. apply uk2_set_items; [apply nodup_push; assumption|]. apply uks2_push; assumption.
    - rewrite <- (app_nil_r (ALLI (t_items r'))). apply (dctx_perm _ _ _ _ _ _ _ _ Hc (hframe_set_items _ _)).
      rewrite items_set_items. unfold kv_push. rewrite ALLI_app, app_nil_r. cbn [ALLI flat_map fst snd]. rewrite app_nil_r. reflexivity.
  Qed.
End UK2.

Lemma dctx_reach d p r r' par par' : dctx_rel d p r r' par par' ->
  reach r' p = Some par' /\ (forall par0, reach r p = Some par0 -> par0 = par).
Proof.
  induction 1 as [t t'|t k p sub par par' G Hc IH|t k p k0 sub sub' par par' G Hc IH|t k p k0 ts sp last rinit last' par par' G Er Hc IH].
  - split; [reflexivity|]. intros par0 H. injection H as <-. reflexivity.
  - destruct IH as [H1 _]. cbn [reach]. rewrite items_set_items, (kv_get_push_new _ _ _ G), G. split; [exact H1|discriminate].
  - destruct IH as [H1 H2]. cbn [reach]. rewrite items_set_items, (kv_get_set_same _ _ _ _ _ G), G. auto.
  - destruct IH as [H1 H2]. cbn [reach]. rewrite items_set_items, (kv_get_set_same _ _ _ _ _ G), G, Er, rev_involutive. auto.
Qed.
