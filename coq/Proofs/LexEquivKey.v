(* Proofs/LexEquivKey.v — C01/C02 layer L1, the two remaining token-like rules:
     ws-comment-newline = *( wschar / [ comment ] newline )       (trivia.rs ws_comment_newline)
     key = simple-key / dotted-key                                 (key.rs key)
   against Spec/Syntax.v wscn_tok / key_tok.  `key_` reads the whitespace around the key
   (the ws of keyval-sep, std-table-open / -close) and produces the list of decoded keys;
   it refuses LIMIT or more parts. *)
From TV Require Import Base.Prelude Base.Winnow Gen.Consts Spec.Abnf Spec.Lex Spec.Syntax.
From TV Require Import Model.Trivia Model.Tree Model.Parse.
From TV Require Import Proofs.LexEquivBase Proofs.LexEquivTrivia Proofs.LexEquivStrings Proofs.GrammarSep.
From TV Require Import Proofs.ModelFacts.
From TV Require Import Proofs.DocumentOps.
Require Import Lia ZifyBool ZifyN ZifyNat.

(* ================================================================================================ *)
(* ws-comment-newline                                                                               *)
(* ================================================================================================ *)
Lemma ws_wscn w t : ws_tok w -> wscn_tok t -> wscn_tok (w ++ t).
Proof.
  unfold ws_tok, all. induction w as [|b w IH]; intros Hw Ht; [exact Ht|].
  cbn [forallb] in Hw. apply andb_true_iff in Hw as [Hb Hw]. cbn [app]. apply wscn_ws; [exact Hb|]. apply IH; assumption.
Qed.

Lemma wscn_app t u : wscn_tok t -> wscn_tok u -> wscn_tok (t ++ u).
Proof.
  induction 1 as [|b t Hb Ht IH|c nl t Hc Hn Ht IH]; intro Hu; [exact Hu| |].
  - cbn [app]. apply wscn_ws; [exact Hb|apply IH, Hu].
  - rewrite <- !app_assoc. apply wscn_nl; [exact Hc|exact Hn|apply IH, Hu].
Qed.

Definition wscn_step (f : nat) (start : N) (p : parser unit) (i1 : input) : res unit :=
  match p i1 with
  | Ok _ i2 => if (pos i2 =? start)%N then Ok tt i2 else ws_comment_newline_f f (pos i2) i2
  | Bt e i' => Bt e i'
  | Cut e i' => Cut e i'
  | Panic s => Panic s
  end.

Lemma wscn_f_unfold f start i :
  ws_comment_newline_f (S f) start i =
  match ws i with
  | Ok _ i1 =>
    match rest i1 with
    | b :: _ =>
      if byte_eqb b x23 then wscn_step f start (comment ;;; context newline) i1
      else if byte_eqb b x0a then wscn_step f start newline i1
      else if byte_eqb b x0d then wscn_step f start newline i1
      else Ok tt i1
    | [] => Ok tt i1
    end
  | Bt e i' => Bt e i'
  | Cut e i' => Cut e i'
  | Panic s => Panic s
  end.
Proof. reflexivity. Qed.

Lemma comment_line_sound i u i' : (comment ;;; context newline) i = Ok u i' ->
  exists c nl, comment_tok c /\ newline_tok nl /\ splits i (c ++ nl) i'.
Proof.
  intro H. apply bind_inv in H as (x & i1 & H1 & H). apply comment_sound in H1 as (c & Hc & S1 & _).
  apply context_inv, newline_sound in H as (nl & Hn & S2). exists c, nl. split; [exact Hc|]. split; [exact Hn|].
  eapply splits_trans; eassumption.
Qed.

Lemma wscn_f_sound : forall fuel start i u i', ws_comment_newline_f fuel start i = Ok u i' ->
  exists t, wscn_tok t /\ splits i t i'.
Proof.
  induction fuel as [|f IH]; intros start i u i' H; [discriminate|]. rewrite wscn_f_unfold in H.
  destruct (ws i) as [w i1|e j|e j|s] eqn:Ew; try discriminate. apply ws_sound in Ew as (Hw & S1 & _).
  assert (Hstep : forall p, (forall j v j', p j = Ok v j' -> exists c nl, opt_comment c /\ newline_tok nl /\ splits j (c ++ nl) j') ->
            wscn_step f start p i1 = Ok u i' -> exists t, wscn_tok t /\ splits i t i').
  { intros p Hp Hs. unfold wscn_step in Hs. destruct (p i1) as [v i2|e j|e j|s] eqn:Ep; try discriminate.
    apply Hp in Ep as (c & nl & Hc & Hn & S2).
    destruct (pos i2 =? start)%N.
    - injection Hs as _ <-. exists (w ++ c ++ nl). split.
      + apply ws_wscn; [exact Hw|]. replace (c ++ nl) with (c ++ nl ++ []) by (rewrite app_nil_r; reflexivity).
        apply wscn_nl; [exact Hc|exact Hn|apply wscn_nil].
      + eapply splits_trans; eassumption.
    - apply IH in Hs as (t & Ht & S3). exists (w ++ (c ++ nl ++ t)). split.
      + apply ws_wscn; [exact Hw|]. apply wscn_nl; assumption.
      + eapply splits_trans; [exact S1|]. rewrite app_assoc. eapply splits_trans; eassumption. }
  assert (Hnl : forall j v j', newline j = Ok v j' -> exists c nl, opt_comment c /\ newline_tok nl /\ splits j (c ++ nl) j').
  { intros j v j' E. apply newline_sound in E as (nl & Hn & S). exists [], nl. split; [left; reflexivity|]. auto. }
  assert (Hcl : forall j v j', (comment ;;; context newline) j = Ok v j' ->
                  exists c nl, opt_comment c /\ newline_tok nl /\ splits j (c ++ nl) j').
  { intros j v j' E. apply comment_line_sound in E as (c & nl & Hc & Hn & S). exists c, nl. split; [right; exact Hc|]. auto. }
  assert (Hend : Ok tt i1 = Ok u i' -> exists t, wscn_tok t /\ splits i t i').
  { intro E. injection E as _ <-. exists w. split; [|exact S1].
    rewrite <- (app_nil_r w). apply ws_wscn; [exact Hw|apply wscn_nil]. }
  destruct (rest i1) as [|b r1]; [apply Hend, H|].
  destruct (byte_eqb b x23); [apply (Hstep _ Hcl H)|].
  destruct (byte_eqb b x0a); [apply (Hstep _ Hnl H)|].
  destruct (byte_eqb b x0d); [apply (Hstep _ Hnl H)|]. apply Hend, H.
Qed.

Theorem wscn_sound i u i' : ws_comment_newline i = Ok u i' -> exists t, wscn_tok t /\ splits i t i'.
Proof. apply wscn_f_sound. Qed.

(* a ws-comment-newline text is a maximal whitespace run, then nothing or a line end and more *)
Lemma wscn_split t : wscn_tok t ->
  exists w t', t = w ++ t' /\ ws_tok w /\
    (t' = [] \/ exists c nl t'', t' = c ++ nl ++ t'' /\ opt_comment c /\ newline_tok nl /\ wscn_tok t'').
Proof.
  induction 1 as [|b t Hb Ht IH|c nl t Hc Hn Ht IH].
  - exists [], []. split; [reflexivity|]. split; [reflexivity|]. left; reflexivity.
  - destruct IH as (w & t' & -> & Hw & Ht'). exists (b :: w), t'. split; [reflexivity|]. split; [|exact Ht'].
    unfold ws_tok, all in *. cbn [forallb]. rewrite Hb, Hw. reflexivity.
  - exists [], (c ++ nl ++ t). split; [reflexivity|]. split; [reflexivity|]. right. exists c, nl, t. auto.
Qed.

Lemma newline_tok_head nl : newline_tok nl -> exists b tl, nl = b :: tl /\ (b = x0a \/ b = x0d).
Proof. intros [-> | ->]; eexists _, _; split; eauto. Qed.

Lemma newline_stops_wschar nl r : newline_tok nl -> stops wschar (nl ++ r).
Proof. intros [-> | ->]; reflexivity. Qed.

Lemma newline_stops_non_eol nl r : newline_tok nl -> stops non_eol (nl ++ r).
Proof. intros [-> | ->]; reflexivity. Qed.

(* in front of a line end the dispatch on the first byte picks a parser that reads exactly that line end *)
Lemma wscn_line f start i1 c nl s : opt_comment c -> newline_tok nl -> rest i1 = c ++ nl ++ s ->
  match rest i1 with
  | b :: _ =>
    if byte_eqb b x23 then wscn_step f start (comment ;;; context newline) i1
    else if byte_eqb b x0a then wscn_step f start newline i1
    else if byte_eqb b x0d then wscn_step f start newline i1
    else Ok tt i1
  | [] => Ok tt i1
  end
  = if (pos (adv (c ++ nl) i1) =? start)%N then Ok tt (adv (c ++ nl) i1)
    else ws_comment_newline_f f (pos (adv (c ++ nl) i1)) (adv (c ++ nl) i1).
Proof.
  intros [-> | Hc] Hn R.
  - transitivity (wscn_step f start newline i1).
    + rewrite R. destruct (newline_tok_head nl Hn) as (b & tl & -> & [-> | ->]); reflexivity.
    + unfold wscn_step. rewrite (newline_complete i1 nl s R Hn). reflexivity.
  - transitivity (wscn_step f start (comment ;;; context newline) i1).
    + rewrite R. destruct Hc as (u & -> & _). reflexivity.
    + unfold wscn_step.
      rewrite (bind_ok _ _ _ _ _ (comment_complete _ c _ R Hc (newline_stops_non_eol nl _ Hn))).
      rewrite (context_ok _ _ _ _ (newline_complete _ nl s (rest_adv c _ _ R) Hn)). rewrite adv_adv. reflexivity.
Qed.

Lemma wscn_f_complete r (Hr : wscn_stop r) : forall fuel i t,
  length (rest i) < fuel -> wscn_tok t -> rest i = t ++ r ->
  ws_comment_newline_f fuel (pos i) i = Ok tt (adv t i).
Proof.
  induction fuel as [|f IH]; intros i t Hf Ht H; [lia|]. rewrite wscn_f_unfold.
  destruct (wscn_split t Ht) as (w & t' & -> & Hw & Ht'). rewrite <- app_assoc in H.
  assert (Hstop : stops wschar (t' ++ r)).
  { destruct Ht' as [-> | (c & nl & t'' & -> & Hc & Hn & _)].
    - destruct r as [|b r']; [exact I|]. cbn [app stops]. apply Hr.
    - destruct Hc as [-> | (u & -> & _)]; [|reflexivity]. cbn [app]. rewrite <- app_assoc. apply newline_stops_wschar, Hn. }
  rewrite (ws_complete i w (t' ++ r) H Hw Hstop).
  pose proof (rest_adv w _ i H) as R1.
  destruct Ht' as [-> | (c & nl & t'' & -> & Hc & Hn & Ht'')].
  - rewrite R1, app_nil_r. cbn [app]. destruct r as [|b r']; [reflexivity|].
    destruct Hr as (_ & H1 & H2 & H3).
    apply byte_eqb_neq in H1, H2, H3. rewrite H1, H2, H3. reflexivity.
  - (* one line end, then the rest by induction *)
    rewrite <- !app_assoc in R1. rewrite (wscn_line f (pos i) (adv w i) c nl (t'' ++ r) Hc Hn R1).
    rewrite adv_adv, pos_adv.
    assert (Hlen : 0 < length (w ++ c ++ nl)).
    { rewrite !app_length. destruct (newline_tok_head nl Hn) as (b & tl & -> & _). cbn [length]. lia. }
    destruct (pos i + N.of_nat (length (w ++ c ++ nl)) =? pos i)%N eqn:Q; [lia|].
    assert (R2 : rest i = (w ++ c ++ nl) ++ t'' ++ r) by (rewrite H; rewrite <- !app_assoc; reflexivity).
    rewrite <- pos_adv. rewrite (IH (adv (w ++ c ++ nl) i) t'').
    + rewrite adv_adv. rewrite <- !app_assoc. reflexivity.
    + rewrite (rest_adv _ _ i R2). rewrite R2 in Hf. rewrite !app_length in *. lia.
    + exact Ht''.
    + apply (rest_adv _ _ i R2).
Qed.

Theorem wscn_complete i t r :
  wscn_tok t -> rest i = t ++ r -> wscn_stop r -> ws_comment_newline i = Ok tt (adv t i).
Proof. intros Ht H Hr. unfold ws_comment_newline. apply (wscn_f_complete r Hr); [lia|exact Ht|exact H]. Qed.

(* ================================================================================================ *)
(* key                                                                                              *)
(* ================================================================================================ *)

Lemma simple_key_tok_head t k : simple_key_tok t k ->
  exists b t', t = b :: t' /\ wschar b = false /\ b <> x2e /\ b <> x3d /\ b <> x5d.
Proof.
  intros [(_ & body & -> & _) | [(_ & body & -> & _) | [[Hne Ha] _]]].
  - exists x22, (body ++ [x22]). repeat split; discriminate.
  - exists x27, (body ++ [x27]). repeat split; discriminate.
  - destruct t as [|b t']; [congruence|]. exists b, t'. split; [reflexivity|].
    unfold all in Ha. cbn [forallb] in Ha. apply andb_true_iff in Ha as [Hb _].
    split; [revert Hb; cls; lia|].
    repeat split; intros ->; discriminate Hb.
Qed.

Lemma key_tok_head t ks : key_tok t ks ->
  exists b t', t = b :: t' /\ wschar b = false /\ b <> x2e /\ b <> x3d /\ b <> x5d.
Proof.
  intros [t0 k H | t0 k w1 w2 u ks0 H _ _ _]; destruct (simple_key_tok_head _ _ H) as (b & t' & -> & Hb);
    eexists b, _; (split; [reflexivity|exact Hb]).
Qed.

Lemma key_tok_nonempty t ks : key_tok t ks -> ks <> [].
Proof. intros [? ? ?|? ? ? ? ? ? ? ? ? ?]; discriminate. Qed.

(* what may follow a key part and its trailing whitespace *)
Definition kp_stop (r : bytes) : Prop := stops wschar r /\ stops unquoted_key_char r.

Lemma kp_stop_ws w r : ws_tok w -> kp_stop r -> stops unquoted_key_char (w ++ r).
Proof.
  intros Hw [_ Hr]. destruct w as [|b w]; [exact Hr|]. cbn [app stops].
  unfold ws_tok, all in Hw. cbn [forallb] in Hw. apply andb_true_iff in Hw as [Hb _]. revert Hb. cls. lia.
Qed.

Lemma key_part_sound i a i1 : key_part i = Ok a i1 ->
  exists w0 t w, ws_tok w0 /\ simple_key_tok t (k_key a) /\ ws_tok w /\ splits i (w0 ++ t ++ w) i1
                 /\ stops wschar (rest i1).
Proof.
  unfold key_part. intro H.
  apply bind_inv in H as (pre & j1 & H1 & H). apply span_inv in H1 as (w0 & H1 & _).
  apply ws_sound in H1 as (Hw0 & S1 & _).
  apply bind_inv in H as ([rw k] & j2 & H2 & H). apply simple_key_sound in H2 as (t & Ht & S2 & _).
  apply bind_inv in H as (suf & j3 & H3 & H). apply span_inv in H3 as (w & H3 & _).
  apply ws_sound in H3 as (Hw & S3 & Hst). apply ret_inv in H as [-> ->].
  exists w0, t, w. cbn [k_key]. split; [exact Hw0|]. split; [exact Ht|]. split; [exact Hw|]. split; [|exact Hst].
  exact (splits_trans _ _ _ _ _ S1 (splits_trans _ _ _ _ _ S2 S3)).
Qed.

Lemma key_part_complete i w0 t k w r :
  ws_tok w0 -> simple_key_tok t k -> ws_tok w -> rest i = w0 ++ t ++ w ++ r -> kp_stop r ->
  exists a, key_part i = Ok a (adv (w0 ++ t ++ w) i) /\ k_key a = k.
Proof.
  intros Hw0 Ht Hw H Hr. unfold key_part.
  destruct (simple_key_tok_head t k Ht) as (b & t' & E & Hb & _).
  assert (S0 : stops wschar (t ++ w ++ r)) by (rewrite E; exact Hb).
  rewrite (bind_ok _ _ _ _ _ (span_ok _ _ _ _ (ws_complete i w0 _ H Hw0 S0))).
  pose proof (rest_adv w0 _ i H) as R1.
  rewrite (bind_ok _ _ _ _ _ (simple_key_complete _ t k (w ++ r) Ht R1 (fun _ => kp_stop_ws w r Hw Hr))).
  cbv beta iota. rewrite adv_adv.
  assert (R2 : rest (adv (w0 ++ t) i) = w ++ r) by (apply rest_adv; rewrite H, <- app_assoc; reflexivity).
  rewrite (bind_ok _ _ _ _ _ (span_ok _ _ _ _ (ws_complete _ w r R2 Hw (proj1 Hr)))).
  rewrite adv_adv, <- app_assoc. eexists. split; reflexivity.
Qed.

Definition dot_sep : parser byte := byte_ DOT_SEP.

Lemma key_part_shrinking : shrinking key_part.
Proof.
  apply splits_shrinking. intros i a i' H. apply key_part_sound in H as (w0 & t & w & _ & _ & _ & S & _). eauto.
Qed.
Lemma dot_sep_shrinking : shrinking dot_sep.
Proof. apply splits_shrinking. intros i a i' H. apply byte_inv in H as [_ S]. eauto. Qed.

Lemma key_seps_sound i l i' : seps key_part dot_sep i l i' ->
  (l = [] /\ i' = i) \/
  exists b t a, ws_tok b /\ key_tok t (map k_key l) /\ ws_tok a /\ splits i ([x2e] ++ b ++ t ++ a) i'.
Proof.
  induction 1 as [i F|i x i1 E Hlt F|i x i1 a i2 l i3 E Hlt E2 Hle R IH]; [left; auto|left; auto|].
  right. apply byte_inv in E as [_ S1]. apply key_part_sound in E2 as (w0 & t & w & Hw0 & Ht & Hw & S2 & _).
  destruct IH as [[-> ->] | (b' & t' & a' & Hb' & Ht' & Ha' & S3)].
  - exists w0, t, w. split; [exact Hw0|]. split; [apply key_one, Ht|]. split; [exact Hw|].
    eapply splits_trans; eassumption.
  - exists w0, (t ++ w ++ [x2e] ++ b' ++ t'), a'. split; [exact Hw0|]. split; [|split; [exact Ha'|]].
    + cbn [map]. apply key_dot; assumption.
    + pose proof (splits_trans _ _ _ _ _ S1 (splits_trans _ _ _ _ _ S2 S3)) as S.
      rewrite <- !app_assoc in *. exact S.
Qed.

Lemma fix_key_path_keys path p : fix_key_path path = Some p -> map k_key p = map k_key path.
Proof. apply (fix_key_path_map k_key); reflexivity. Qed.

Definition key_check (k : list key) : tm (list key) :=
  if check_depth (length k) then TmErr RecursionLimit else TmOk k.

Lemma key_unfold i :
  key_ i = (path <- try_map key_check (context (separated1 key_part dot_sep)) ;;
            match fix_key_path path with Some p => ret p | None => fun _ => Panic P_key_path_empty end) i.
Proof. reflexivity. Qed.

Theorem key_sound i kp i' : key_ i = Ok kp i' ->
  exists w1 t w2, ws_tok w1 /\ key_tok t (map k_key kp) /\ ws_tok w2 /\ splits i (w1 ++ t ++ w2) i'
                  /\ length kp < LIMIT.
Proof.
  rewrite key_unfold. intro H. apply bind_inv in H as (path & j & H1 & H).
  apply try_map_inv in H1 as (path0 & H1 & Hc). unfold key_check in Hc.
  destruct (check_depth (length path0)) eqn:Ed; [discriminate|]. injection Hc as ->.
  apply context_inv in H1. apply (separated1_inv _ _ _ _ _ key_part_shrinking dot_sep_shrinking) in H1
    as (a & i1 & l & -> & Ea & R).
  destruct (fix_key_path (a :: l)) as [p|] eqn:Ef; [|discriminate]. apply ret_inv in H as [-> ->].
  pose proof (fix_key_path_keys _ _ Ef) as Hk.
  assert (Hlen : length p < LIMIT).
  { unfold check_depth in Ed. apply Nat.leb_gt in Ed.
    assert (L : length (map k_key p) = length (map k_key (a :: l))) by (rewrite Hk; reflexivity).
    rewrite !map_length in L. lia. }
  apply key_part_sound in Ea as (w0 & t & w & Hw0 & Ht & Hw & S1 & _).
  apply key_seps_sound in R as [[-> ->] | (b' & t' & a' & Hb' & Ht' & Ha' & S2)].
  - exists w0, t, w. rewrite Hk. cbn [map]. split; [exact Hw0|]. split; [apply key_one, Ht|]. auto.
  - exists w0, (t ++ w ++ [x2e] ++ b' ++ t'), a'. rewrite Hk. cbn [map]. split; [exact Hw0|].
    split; [apply key_dot; assumption|]. split; [exact Ha'|]. split; [|exact Hlen].
    pose proof (splits_trans _ _ _ _ _ S1 S2) as S. rewrite <- !app_assoc in *. exact S.
Qed.

Lemma key_stop_kp r : key_stop r -> kp_stop r /\ stops (byte_eqb DOT_SEP) r.
Proof. intros (b & r' & -> & [-> | ->]); repeat split; reflexivity. Qed.

(* the parts of a key, as the separated1 loop reads them *)
Lemma key_parts_complete t ks : key_tok t ks -> forall i w0 w2 r,
  ws_tok w0 -> ws_tok w2 -> rest i = w0 ++ t ++ w2 ++ r -> key_stop r ->
  exists a i1 l, key_part i = Ok a i1 /\ seps key_part dot_sep i1 l (adv (w0 ++ t ++ w2) i)
                 /\ map k_key (a :: l) = ks.
Proof.
  induction 1 as [t k Ht|t k w1 w3 u ks Ht Hw1 Hw3 Hu IH]; intros i w0 w2 r Hw0 Hw2 H Hr.
  - destruct (key_stop_kp r Hr) as [Hkp Hdot].
    destruct (key_part_complete i w0 t k w2 r Hw0 Ht Hw2 H Hkp) as (a & Ea & Hk).
    exists a, (adv (w0 ++ t ++ w2) i), []. split; [exact Ea|]. split; [|cbn [map]; rewrite Hk; reflexivity].
    apply seps_stop_sep. apply byte_fails. rewrite (rest_adv (w0 ++ t ++ w2) r i); [exact Hdot|].
    rewrite H, <- !app_assoc. reflexivity.
  - assert (H' : rest i = w0 ++ t ++ w1 ++ ([x2e] ++ w3 ++ u ++ w2 ++ r))
      by (rewrite H, <- !app_assoc; reflexivity).
    assert (Hkp : kp_stop ([x2e] ++ w3 ++ u ++ w2 ++ r)) by (split; reflexivity).
    destruct (key_part_complete i w0 t k w1 _ Hw0 Ht Hw1 H' Hkp) as (a & Ea & Hk).
    set (i1 := adv (w0 ++ t ++ w1) i) in *.
    assert (R1 : rest i1 = x2e :: w3 ++ u ++ w2 ++ r).
    { unfold i1. apply rest_adv. rewrite H', <- !app_assoc. reflexivity. }
    pose proof (byte_ok DOT_SEP i1 _ R1) as Edot. fold dot_sep in Edot.
    assert (R2 : rest (adv [DOT_SEP] i1) = w3 ++ u ++ w2 ++ r) by (apply (rest_adv [x2e]); exact R1).
    destruct (IH (adv [DOT_SEP] i1) w3 w2 r Hw3 Hw2 R2 Hr) as (a' & i2 & l & Ea' & R & Hks).
    exists a, i1, (a' :: l). split; [exact Ea|]. split; [|cbn [map] in *; rewrite Hk, Hks; reflexivity].
    eapply seps_cons; [exact Edot| | exact Ea' | |].
    + rewrite R2, R1. cbn [length]. lia.
    + apply (key_part_shrinking _ _ _ Ea').
    + unfold i1 in R. rewrite !adv_adv in R. rewrite <- !app_assoc in *. exact R.
Qed.

Lemma fix_key_path_total path : path <> [] -> exists p, fix_key_path path = Some p.
Proof.
  intro Hne. unfold fix_key_path. destruct path as [|first tl]; [congruence|].
  match goal with |- context [rev ?x] => destruct (rev x) as [|last rinit] eqn:Er end.
  - apply (f_equal (@length key)) in Er. rewrite rev_length in Er. discriminate.
  - eauto.
Qed.

Lemma key_raw_complete i w1 t ks w2 r :
  ws_tok w1 -> key_tok t ks -> ws_tok w2 -> rest i = w1 ++ t ++ w2 ++ r -> key_stop r ->
  exists path, context (separated1 key_part dot_sep) i = Ok path (adv (w1 ++ t ++ w2) i) /\ map k_key path = ks.
Proof.
  intros Hw1 Ht Hw2 H Hr.
  destruct (key_parts_complete t ks Ht i w1 w2 r Hw1 Hw2 H Hr) as (a & i1 & l & Ea & R & Hks).
  exists (a :: l). split; [|exact Hks]. apply context_ok. apply (separated1_cons _ _ _ _ _ _ _ Ea R).
Qed.

Theorem key_complete i w1 t ks w2 r :
  ws_tok w1 -> key_tok t ks -> ws_tok w2 -> rest i = w1 ++ t ++ w2 ++ r -> key_stop r ->
  length ks < LIMIT ->
  exists kp, key_ i = Ok kp (adv (w1 ++ t ++ w2) i) /\ map k_key kp = ks.
Proof.
  intros Hw1 Ht Hw2 H Hr Hlen.
  destruct (key_raw_complete i w1 t ks w2 r Hw1 Ht Hw2 H Hr) as (path & Ep & Hks).
  assert (Hne : path <> []) by (intros ->; apply (key_tok_nonempty _ _ Ht); rewrite <- Hks; reflexivity).
  destruct (fix_key_path_total path Hne) as (p & Ef).
  exists p. split; [|rewrite (fix_key_path_keys _ _ Ef); exact Hks].
  assert (Hc : key_check path = TmOk path).
  { unfold key_check, check_depth. rewrite <- Hks, map_length in Hlen.
    destruct (Nat.leb LIMIT (length path)) eqn:Q; [apply Nat.leb_le in Q; lia|reflexivity]. }
  rewrite key_unfold. rewrite (bind_ok _ _ _ _ _ (try_map_ok _ _ _ _ path _ Ep Hc)).
  rewrite Ef. reflexivity.
Qed.

Theorem key_too_long i w1 t ks w2 r :
  ws_tok w1 -> key_tok t ks -> ws_tok w2 -> rest i = w1 ++ t ++ w2 ++ r -> key_stop r ->
  LIMIT <= length ks -> exists j, key_ i = Bt (err_of RecursionLimit) j.
Proof.
  intros Hw1 Ht Hw2 H Hr Hlen.
  destruct (key_raw_complete i w1 t ks w2 r Hw1 Ht Hw2 H Hr) as (path & Ep & Hks).
  rewrite key_unfold. unfold bind, try_map. rewrite Ep. unfold key_check, check_depth.
  rewrite <- Hks, map_length in Hlen. apply Nat.leb_le in Hlen. rewrite Hlen. eauto.
Qed.

Theorem key_cut_only i e j : key_ i = Cut e j ->
  forall w1 t ks w2 r, ws_tok w1 -> key_tok t ks -> ws_tok w2 -> rest i = w1 ++ t ++ w2 ++ r -> key_stop r -> False.
Proof.
  intros Hc w1 t ks w2 r Hw1 Ht Hw2 H Hr.
  destruct (key_raw_complete i w1 t ks w2 r Hw1 Ht Hw2 H Hr) as (path & Ep & Hks).
  rewrite key_unfold in Hc. unfold bind, try_map in Hc. rewrite Ep in Hc. unfold key_check in Hc.
  destruct (check_depth (length path)); [discriminate|].
  destruct (fix_key_path path); discriminate.
Qed.

(* the last key of a path and what precedes it, as `pop_key` splits them *)
Lemma pop_key_keys kp path k : pop_key kp = Some (path, k) -> map k_key kp = map k_key path ++ [k_key k].
Proof. intro E. rewrite (pop_key_some _ _ _ E), map_app. reflexivity. Qed.

(* key fails without commitment in front of a byte that starts no key (e.g. "}" or "]") *)
Lemma key_fails i w b tl : ws_tok w -> rest i = w ++ b :: tl -> wschar b = false ->
  b <> x22 -> b <> x27 -> unquoted_key_char b = false -> fails key_ i.
Proof.
  intros Hw H Hb Hq Ha Hu. unfold fails. rewrite key_unfold. apply bind_fails, try_map_fails, context_fails, separated1_fails.
  unfold key_part. eapply (bind_ok_fails _ _ i).
  - apply (span_ok _ _ w). apply (ws_complete i w (b :: tl) H Hw). exact Hb.
  - apply bind_fails. unfold fails. rewrite simple_key_unfold. apply pmap_fails.
    assert (F : fails key_dispatch (adv w i)).
    { unfold key_dispatch, QUOTATION_MARK, APOSTROPHE. pose proof (rest_adv w _ i H) as R.
      unfold fails. rewrite (bind_ok _ _ _ _ _ (peek_ok _ _ _ _ (any_ok _ b tl R))).
      apply byte_eqb_neq in Hq, Ha. rewrite Hq, Ha. apply unquoted_key_fails. rewrite R. exact Hu. }
    apply context_fails in F. destruct F as (e & j & F). unfold fails, with_span. rewrite F. eauto.
Qed.

(* first byte of a key *)
Definition khead (b : byte) : Prop := b = x22 \/ b = x27 \/ unquoted_key_char b = true.

Lemma simple_key_khead t k : simple_key_tok t k -> exists b t', t = b :: t' /\ khead b.
Proof.
  unfold khead. intros [(_ & body & -> & _) | [(_ & body & -> & _) | [[Hne Ha] _]]].
  - exists x22, (body ++ [x22]). auto.
  - exists x27, (body ++ [x27]). auto.
  - destruct t as [|b t']; [congruence|]. exists b, t'. split; [reflexivity|].
    unfold all in Ha. cbn [forallb] in Ha. apply andb_true_iff in Ha as [Hb _]. auto.
Qed.

Lemma key_khead t p : key_tok t p -> exists b t', t = b :: t' /\ khead b.
Proof.
  intros [t0 k H | t0 k w1 w2 u ks H _ _ _]; destruct (simple_key_khead _ _ H) as (b & t' & -> & Hb);
    eexists b, _; (split; [reflexivity|exact Hb]).
Qed.

