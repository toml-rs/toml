(* Proofs/DefsEquivSim.v — C09: the simulation between the parse state machine (root plus the
   detached current table at st_path, implicit/dotted flags) and the spec state (one tree with
   kinds, current section addressed by its header path); one lemma per statement kind. *)
From TV Require Import Base.Prelude Model.Tree Model.Parse Model.Document Spec.Defs.
From TV Require Import Proofs.DefsEquivBase Proofs.DefsEquivSpec Proofs.DefsEquivWalk.
From TV Require Import Proofs.DocumentOps.

(* ---- small facts --------------------------------------------------------------------------- *)



Lemma keys_app p q : keys (p ++ q) = keys p ++ keys q.
Proof. apply map_app. Qed.

Lemma abs_set_span t s : abs_tbl (t_set_span t s) = abs_tbl t.
Proof. rewrite !abs_tbl_eq. destruct t. reflexivity. Qed.
Lemma mok_set_span t s : mok_tbl (t_set_span t s) = mok_tbl t.
Proof. rewrite !mok_tbl_eq. destruct t. reflexivity. Qed.

Lemma def_table_swf k (t t' : stree value) : swf_tree t = true -> def_table k t = ROk t' -> swf_tree t' = true.
Proof.
  unfold def_table. intros Ht H. destruct (sget t k) as [[v|[| |] c|es]|] eqn:E; inversion H; subst.
  - destruct (swf_sremove t k Ht) as [H1 H2]. pose proof (swf_sget _ _ _ Ht E) as Hc.
    apply swf_spush; [exact H1 | rewrite swf_node_tab in *; exact Hc | exact H2].
  - apply swf_spush; [exact Ht | reflexivity | exact E].
Qed.

Lemma def_elem_swf k (t t' : stree value) : swf_tree t = true -> def_elem k t = ROk t' -> swf_tree t' = true.
Proof.
  unfold def_elem. intros Ht H. destruct (sget t k) as [[v|kd c|es]|] eqn:E; inversion H; subst.
  - pose proof (swf_sget _ _ _ Ht E) as Hc. rewrite swf_node_aot in Hc. apply andb_true_iff in Hc as [_ Hc].
    apply swf_sset; [exact Ht | apply swf_aot_snoc; [exact Hc | reflexivity]].
  - apply swf_spush; [exact Ht | reflexivity | exact E].
Qed.

(* ---- the invariant ------------------------------------------------------------------------- *)
Definition Inv (st : pstate) (S : sstate value) : Prop :=
  let '(T, cp) := S in
  cp = keys (st_path st) /\
  mok_tbl (st_root st) = true /\ mok_tbl (st_current st) = true /\
  t_implicit (st_current st) = false /\ t_dotted (st_current st) = false /\
  swf_tree T = true /\ swf_tree (abs_tbl (st_current st)) = true /\
  match pop_key (st_path st) with
  | None => t_items (st_root st) = [] /\ T = abs_tbl (st_current st)
  | Some (pre, k) =>
    at_path_x (keys pre) (plug (st_is_array st) (k_key k) (abs_tbl (st_current st))) (abs_tbl (st_root st))
    = ROk (T, tt)
  end.

Lemma Inv_init : Inv state_new sstate0.
Proof. cbv [Inv state_new sstate0]. repeat split; reflexivity. Qed.

(* ---- finalize_table re-attaches the section where the spec tree has it --------------------- *)
Lemma f_fin_aot_ok k cur t0 T' y :
  mok_tbl cur = true -> t_dotted cur = false ->
  mok_tbl t0 = true -> plug true (k_key k) (abs_tbl cur) (abs_tbl t0) = ROk (T', y) ->
  okres (fun (_ _ : unit) => True) t0 (f_fin_aot k cur t0) T' y.
Proof.
  intros Hmc Hcd Hm0 Hg. unfold plug in Hg. unfold f_fin_aot. rewrite (abs_tbl_eq t0), abs_get in Hg. rewrite mok_tbl_eq in Hm0.
  destruct (kv_get (t_items t0) (k_key k)) as [[k' it]|] eqn:E; [|discriminate].
  pose proof (mok_get _ _ _ _ Hm0 E) as Hit.
  destruct it as [|v|sub|ts sp]; try discriminate.
  rewrite abs_item_aot in Hg. inversion Hg; subst. cbv zeta.
  eexists _, tt. split; [reflexivity|]. split.
  { rewrite abs_set_items, abs_set, abs_item_aot, map_app. reflexivity. }
  split; [exact I|]. split.
  { rewrite mok_set_items. apply mok_set; [exact Hm0|]. rewrite mok_item_aot in Hit.
    apply mok_aot_snoc; assumption. }
  split; [apply implicit_set_items | apply dotted_set_items].
Qed.

Lemma f_fin_std_ok k cur t0 T' y :
  mok_tbl cur = true -> t_implicit cur = false ->
  mok_tbl t0 = true -> plug false (k_key k) (abs_tbl cur) (abs_tbl t0) = ROk (T', y) ->
  okres (fun (_ _ : unit) => True) t0 (f_fin_std k cur t0) T' y.
Proof.
  intros Hmc Hci Hm0 Hg. unfold plug in Hg. unfold f_fin_std. rewrite (abs_tbl_eq t0), abs_get in Hg. rewrite mok_tbl_eq in Hm0.
  destruct (kv_get (t_items t0) (k_key k)) as [[k' it]|] eqn:E; [discriminate|].
  inversion Hg; subst.
  eexists _, tt. split; [reflexivity|]. split.
  { rewrite abs_set_items, abs_push. cbn [abs_item]. unfold kind_of. rewrite Hci. reflexivity. }
  split; [exact I|]. split.
  { rewrite mok_set_items. apply mok_push; [exact Hm0 | exact Hmc]. }
  split; [apply implicit_set_items | apply dotted_set_items].
Qed.

Lemma finalize_sim st T cp :
  Inv st (T, cp) ->
  exists root', finalize_table st = COk (finalized st root') /\ abs_tbl root' = T /\ mok_tbl root' = true.
Proof.
  intros (Hcp & Hmr & Hmc & Hci & Hcd & HsT & HsC & Hplug).
  rewrite finalize_table_eq. destruct (pop_key (st_path st)) as [[pre k]|] eqn:Ep.
  - destruct (st_is_array st) eqn:Earr.
    + destruct (wta_ok (fun (_ _ : unit) => True) (f_fin_aot k (st_current st)) (plug true (k_key k) (abs_tbl (st_current st)))
                  (fun t0 T' y => f_fin_aot_ok k (st_current st) t0 T' y Hmc Hcd) pre (st_root st) T tt Hmr Hplug)
        as (root' & x & Hr & Ha & _ & Hm' & _).
      rewrite Hr. exists root'. auto.
    + destruct (wta_ok (fun (_ _ : unit) => True) (f_fin_std k (st_current st)) (plug false (k_key k) (abs_tbl (st_current st)))
                  (fun t0 T' y => f_fin_std_ok k (st_current st) t0 T' y Hmc Hci) pre (st_root st) T tt Hmr Hplug)
        as (root' & x & Hr & Ha & _ & Hm' & _).
      rewrite Hr. exists root'. auto.
  - destruct Hplug as [Hroot HT]. unfold tbl_is_empty. rewrite Hroot. cbn [forallb].
    exists (st_current st). subst T. auto.
Qed.

(* ---- [table] -------------------------------------------------------------------------------- *)
Definition phi_take (x : option tbl) (y : option (stree value)) : Prop :=
  match x, y with
  | None, None => True
  | Some t, Some c => abs_tbl t = c /\ mok_tbl t = true
  | _, _ => False
  end.

Lemma f_start_std_ok k t0 T' y :
  mok_tbl t0 = true -> take (k_key k) (abs_tbl t0) = ROk (T', y) -> okres phi_take t0 (f_start_std k t0) T' y.
Proof.
  intros Hm0 Hg. unfold take in Hg. unfold f_start_std. rewrite abs_tbl_eq, abs_get in Hg. rewrite mok_tbl_eq in Hm0.
  destruct (kv_get (t_items t0) (k_key k)) as [[k' it]|] eqn:E.
  - pose proof (mok_get _ _ _ _ Hm0 E) as Hit.
    destruct it as [|v|sub|ts sp]; try discriminate.
    + cbn [abs_item] in Hg. unfold kind_of in Hg.
      destruct (t_implicit sub); [|discriminate]. destruct (t_dotted sub); [discriminate|].
      inversion Hg; subst. cbn [andb negb].
      eexists _, _. split; [reflexivity|]. split; [rewrite abs_set_items, abs_remove; reflexivity|].
      split; [cbn [phi_take]; auto|]. split; [rewrite mok_set_items; apply mok_remove; exact Hm0|].
      split; [apply implicit_set_items | apply dotted_set_items].
  - inversion Hg; subst. eexists _, _. split; [reflexivity|]. split; [apply abs_tbl_eq|].
    split; [exact I|]. rewrite mok_tbl_eq. auto.
Qed.

Lemma f_start_std_refuses k t0 :
  mok_tbl t0 = true -> take (k_key k) (abs_tbl t0) = RInvalid -> exists c, f_start_std k t0 = CErr c.
Proof.
  intros Hm0 Hg. unfold take in Hg. unfold f_start_std. rewrite abs_tbl_eq, abs_get in Hg.
  destruct (kv_get (t_items t0) (k_key k)) as [[k' it]|] eqn:E; [|discriminate].
  destruct it as [|v|sub|ts sp]; try (eexists; reflexivity).
  cbn [abs_item] in Hg. unfold kind_of in Hg.
  destruct (t_implicit sub); [|eexists; reflexivity]. destruct (t_dotted sub); [eexists; reflexivity|discriminate].
Qed.

Lemma take_swf k (t t' : stree value) y :
  swf_tree t = true -> take k t = ROk (t', y) -> swf_tree t' = true /\ swf_tree (odflt y) = true.
Proof.
  unfold take. intros Ht H. destruct (sget t k) as [[v|[| |] c|es]|] eqn:E; inversion H; subst.
  - pose proof (swf_sget _ _ _ Ht E) as Hc. rewrite swf_node_tab in Hc.
    split; [apply (swf_sremove t k Ht) | exact Hc].
  - split; [exact Ht | reflexivity].
Qed.

Lemma start_table_sim st pre k dec sp T :
  st_path st = [] -> st_current st = tbl_new ->
  mok_tbl (st_root st) = true -> abs_tbl (st_root st) = T -> swf_tree T = true ->
  match at_path (keys pre) (def_table (k_key k)) T with
  | ROk T' => exists st', start_table st (pre ++ [k]) dec sp = COk st' /\ Inv st' (T', keys (pre ++ [k]))
  | RInvalid => exists c, start_table st (pre ++ [k]) dec sp = CErr c
  | RUndecided => True
  end.
Proof.
  intros Hp Hc Hmr Ha HsT. rewrite start_table_eq, pop_key_app, Hp, Hc. cbn [tbl_is_empty tbl_new t_items forallb negb].
  rewrite at_path_lift.
  pose proof (at_path_x_status (fun t => swf_tree t = true) (keys pre) (take (k_key k)) (lift (def_table (k_key k))) T
                walk_closed_swf HsT (fun t _ => take_status (k_key k) t)) as Hst.
  destruct (at_path_x (keys pre) (take (k_key k)) T) as [[T2 oc]| |] eqn:Et; cbn [status] in Hst.
  - (* the header is accepted *)
    subst T.
    destruct (wta_ok phi_take (f_start_std k) (take (k_key k)) (f_start_std_ok k) pre (st_root st) T2 oc Hmr Et)
      as (root2 & taken & Hr & Ha2 & Hphi & Hm2 & _).
    rewrite Hr.
    pose proof (at_path_x_comp (keys pre) (take (k_key k)) (fun o => plug false (k_key k) (odflt o)) _ _ _ Et) as Hcomp.
    cbv beta in Hcomp.
    rewrite (at_path_x_ext (fun t => swf_tree t = true) (keys pre) _ (lift (def_table (k_key k))) _
               walk_closed_swf HsT (take_plug_def_table (k_key k))) in Hcomp.
    destruct (at_path_x (keys pre) (lift (def_table (k_key k))) (abs_tbl (st_root st))) as [[T' []]| |] eqn:Ed;
      cbn [status] in Hst; try discriminate.
    cbn [rbind fst]. eexists. split; [reflexivity|].
    destruct (at_path_x_inv _ (fun o => swf_tree (odflt o) = true) _ _ _ _ _ walk_inv_swf HsT (take_swf (k_key k)) Et) as [_ Hoc].
    assert (HsT' : swf_tree T' = true).
    { refine (proj1 (at_path_x_inv _ (fun _ => True) _ _ _ _ _ walk_inv_swf HsT _ Ed)).
      intros t t' y Ht Hl. split; [exact (def_table_swf _ t t' Ht (lift_ok _ t t' y Hl)) | exact I]. }
    assert (Hcur : abs_items (t_items (match taken with Some t => t | None => tbl_new end)) = odflt oc /\
                   mok_items (t_items (match taken with Some t => t | None => tbl_new end)) = true).
    { destruct taken as [tk|], oc as [c|]; cbn [phi_take] in Hphi; try contradiction.
      - destruct Hphi as [H1 H2]. rewrite <- abs_tbl_eq, <- mok_tbl_eq. auto.
      - split; reflexivity. }
    destruct Hcur as [Hcur1 Hcur2].
    unfold Inv, open_table.
    cbn [st_path st_root st_current st_is_array].
    rewrite pop_key_app.
    assert (Habs : forall d i dt p s, abs_tbl (Tbl (t_items (match taken with Some t => t | None => tbl_new end)) d i dt p s) = odflt oc).
    { intros. rewrite abs_tbl_eq. exact Hcur1. }
    rewrite !Habs.
    split; [reflexivity|]. split; [exact Hm2|]. split; [rewrite mok_tbl_eq; exact Hcur2|].
    split; [reflexivity|]. split; [reflexivity|]. split; [exact HsT'|]. split; [exact Hoc|].
    rewrite Ha2. exact Hcomp.
  - (* rejected *)
    destruct (at_path_x (keys pre) (lift (def_table (k_key k))) T) as [[T' []]| |] eqn:Ed;
      cbn [status] in Hst; try discriminate.
    cbn [rbind]. subst T.
    destruct (wta_inv (f_start_std k) (take (k_key k)) (fun t0 Hm0 _ Hg => f_start_std_refuses k t0 Hm0 Hg) pre (st_root st) Hmr HsT Et) as [c Hc'].
    rewrite Hc'. eexists; reflexivity.
  - destruct (at_path_x (keys pre) (lift (def_table (k_key k))) T) as [[T' []]| |] eqn:Ed;
      cbn [status] in Hst; try discriminate.
    cbn [rbind]. exact I.
Qed.

(* ---- [[array of tables]] ------------------------------------------------------------------- *)
Lemma f_start_aot_ok k t0 T' y :
  mok_tbl t0 = true -> mk_aot (k_key k) (abs_tbl t0) = ROk (T', y) ->
  okres (fun (_ _ : unit) => True) t0 (f_start_aot k t0) T' y.
Proof.
  intros Hm0 Hg. unfold mk_aot in Hg. unfold f_start_aot. rewrite abs_tbl_eq, abs_get in Hg. rewrite mok_tbl_eq in Hm0.
  destruct (kv_get (t_items t0) (k_key k)) as [[k' it]|] eqn:E.
  - pose proof (mok_get _ _ _ _ Hm0 E) as Hit.
    destruct it as [|v|sub|ts sp]; try discriminate.
    rewrite abs_item_aot in Hg. inversion Hg; subst.
    eexists _, tt. split; [reflexivity|]. split; [apply abs_tbl_eq|]. split; [exact I|].
    rewrite mok_tbl_eq. auto.
  - inversion Hg; subst. eexists _, tt. split; [reflexivity|].
    split; [rewrite abs_set_items, abs_push; reflexivity|]. split; [exact I|].
    split; [rewrite mok_set_items; apply mok_push; [exact Hm0 | reflexivity]|].
    split; [apply implicit_set_items | apply dotted_set_items].
Qed.

Lemma f_start_aot_refuses k t0 :
  mok_tbl t0 = true -> mk_aot (k_key k) (abs_tbl t0) = RInvalid -> exists c, f_start_aot k t0 = CErr c.
Proof.
  intros Hm0 Hg. unfold mk_aot in Hg. unfold f_start_aot. rewrite abs_tbl_eq, abs_get in Hg.
  destruct (kv_get (t_items t0) (k_key k)) as [[k' it]|] eqn:E; [|discriminate].
  destruct it as [|v|sub|ts sp]; try (eexists; reflexivity).
  rewrite abs_item_aot in Hg. discriminate.
Qed.

Lemma start_array_table_sim st pre k dec sp T :
  st_path st = [] -> st_current st = tbl_new ->
  mok_tbl (st_root st) = true -> abs_tbl (st_root st) = T -> swf_tree T = true ->
  match at_path (keys pre) (def_elem (k_key k)) T with
  | ROk T' => exists st', start_array_table st (pre ++ [k]) dec sp = COk st' /\ Inv st' (T', keys (pre ++ [k]))
  | RInvalid => exists c, start_array_table st (pre ++ [k]) dec sp = CErr c
  | RUndecided => True
  end.
Proof.
  intros Hp Hc Hmr Ha HsT. rewrite start_array_table_eq, pop_key_app, Hp, Hc. cbn [tbl_is_empty tbl_new t_items forallb negb].
  rewrite at_path_lift.
  pose proof (at_path_x_status (fun _ => True) (keys pre) (mk_aot (k_key k)) (lift (def_elem (k_key k))) T
                walk_closed_true I (fun t _ => mk_aot_status (k_key k) t)) as Hst.
  destruct (at_path_x (keys pre) (mk_aot (k_key k)) T) as [[T2 []]| |] eqn:Et; cbn [status] in Hst.
  - subst T.
    destruct (wta_ok (fun (_ _ : unit) => True) (f_start_aot k) (mk_aot (k_key k)) (f_start_aot_ok k) pre (st_root st) T2 tt Hmr Et)
      as (root2 & x & Hr & Ha2 & _ & Hm2 & _).
    rewrite Hr.
    pose proof (at_path_x_comp (keys pre) (mk_aot (k_key k)) (fun _ => plug true (k_key k) []) _ _ _ Et) as Hcomp.
    cbv beta in Hcomp.
    rewrite (at_path_x_ext (fun _ => True) (keys pre) _ (lift (def_elem (k_key k))) _
               walk_closed_true I (fun t _ => mk_aot_plug_def_elem (k_key k) t)) in Hcomp.
    destruct (at_path_x (keys pre) (lift (def_elem (k_key k))) (abs_tbl (st_root st))) as [[T' []]| |] eqn:Ed;
      cbn [status] in Hst; try discriminate.
    cbn [rbind fst]. eexists. split; [reflexivity|].
    assert (HsT' : swf_tree T' = true).
    { refine (proj1 (at_path_x_inv _ (fun _ => True) _ _ _ _ _ walk_inv_swf HsT _ Ed)).
      intros t t' y Ht Hl. split; [exact (def_elem_swf _ t t' Ht (lift_ok _ t t' y Hl)) | exact I]. }
    unfold Inv, open_table. cbn [st_path st_root st_current st_is_array].
    rewrite pop_key_app.
    split; [reflexivity|]. split; [exact Hm2|]. split; [reflexivity|].
    split; [reflexivity|]. split; [reflexivity|]. split; [exact HsT'|]. split; [reflexivity|].
    rewrite Ha2. exact Hcomp.
  - destruct (at_path_x (keys pre) (lift (def_elem (k_key k))) T) as [[T' []]| |] eqn:Ed;
      cbn [status] in Hst; try discriminate.
    cbn [rbind]. subst T.
    destruct (wta_inv (f_start_aot k) (mk_aot (k_key k)) (fun t0 Hm0 _ Hg => f_start_aot_refuses k t0 Hm0 Hg) pre (st_root st) Hmr HsT Et) as [c Hc'].
    rewrite Hc'. eexists; reflexivity.
  - destruct (at_path_x (keys pre) (lift (def_elem (k_key k))) T) as [[T' []]| |] eqn:Ed;
      cbn [status] in Hst; try discriminate.
    cbn [rbind]. exact I.
Qed.
