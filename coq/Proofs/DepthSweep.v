(* Proofs/DepthSweep.v — lemmas behind Props/C05.v, part 7: witness documents.
   The single-construct families, the F12 shape, and the documents showing that the proved bounds
   are attained.  An accepted witness is a derivation of the grammar, by induction on its size
   parameters; what the parser makes of it then follows from the determinism theorems
   (Proofs/DepthWitness.v), and only the definition rules are run, on the abstract statements.
   The grammar side does not speak of the cause of an error: the rejected key paths are swept
   (the domain is finite and the model is executable), and of an F12 document only the two
   innermost levels are evaluated. *)
From Coq Require Import List Bool Arith NArith ZArith Lia.
From Coq.Strings Require Import Byte.
From TV Require Import Base.Prelude Base.Winnow Gen.Consts.
From TV Require Import Model.Parse Model.Document.
From TV Require Import Proofs.DepthBase Proofs.DepthDoc Proofs.DepthLimit.
From TV Require Model.Trivia.
From TV Require Import Spec.Abnf Spec.Lex Spec.Defs Spec.Syntax.
From TV Require Import Proofs.LexEquivBase Proofs.LexEquivKey Proofs.GrammarDocLine Proofs.GrammarValueComplete Proofs.DepthWitness.
Import ListNotations.

(* ---- shapes ------------------------------------------------------------------------------ *)
Definition rep {A} (n : nat) (l : list A) : list A := concat (repeat l n).
(* k.k.….k  (n segments) *)
Definition kpath (n : nat) : bytes := match n with 0 => [] | S m => x6b :: rep m [x2e; x6b] end.
(* a=[[…]]            n arrays *)
Definition nested_arrays (n : nat) : bytes := [x61; x3d] ++ repeat x5b n ++ repeat x5d n.
(* a={k={k=…1…}}      n inline tables *)
Definition nested_inline (n : nat) : bytes := [x61; x3d] ++ braces n ++ [x31] ++ repeat x7d n.
(* k.k.….k=1          n segments *)
Definition dotted_key (n : nat) : bytes := kpath n ++ [x3d; x31].
(* [k.k.….k]          n segments *)
Definition header_path (n : nat) : bytes := [x5b] ++ kpath n ++ [x5d].
(* [[k.k.….k]]        n segments *)
Definition aot_path (n : nat) : bytes := [x5b; x5b] ++ kpath n ++ [x5d; x5d].
(* a={k.….k={k.….k=…1…}}   `levels` inline tables, each reached through `segs` key segments;
   before the repair this was accepted with a tree levels*segs deep *)
Definition f12 (levels segs : nat) : bytes :=
  [x61; x3d] ++ rep levels ([x7b] ++ kpath segs ++ [x3d]) ++ [x31] ++ rep levels [x7d].
(* [[…{k.….k=1}…]] : na arrays around one inline table with a dotted key of `segs` segments *)
Definition deep_value (na segs : nat) : bytes :=
  repeat x5b na ++ [x7b] ++ kpath segs ++ [x3d; x31; x7d] ++ repeat x5d na.
(* [[k]] [[k.k]] … [[k.….k]] (h headers), then  k.….k (kk segments) = deep_value na segs *)
Definition aot_headers (h : nat) : bytes :=
  concat (map (fun j => [x5b; x5b] ++ kpath j ++ [x5d; x5d; x0a]) (seq 1 h)).
Definition deepest (h kk na segs : nat) : bytes :=
  aot_headers h ++ kpath kk ++ [x3d] ++ deep_value na segs.

Definition accepted (s : bytes) : bool := match parse_document s with POk _ => true | _ => false end.
Definition limit_err (s : bytes) : bool :=
  match parse_document s with
  | PErr e _ => match e_cause e with Some RecursionLimit => true | _ => false end
  | _ => false
  end.
Definition depth_of (s : bytes) : option nat :=
  match parse_document s with POk d => Some (tbl_depth (doc_root d)) | _ => None end.
Definition value_depth_of (s : bytes) : option nat :=
  match parse_value_raw s with POk v => Some (value_depth v) | _ => None end.

Lemma sweep_lift (P : nat -> bool) a len :
  forallb P (seq a len) = true -> forall n, a <= n < a + len -> P n = true.
Proof. intros H n Hn. rewrite forallb_forall in H. apply H. apply in_seq. lia. Qed.

(* ---- the shapes are derivations of the grammar (Spec/Syntax.v) ------------------------------- *)
Lemma rep_snoc {A} n (l : list A) : rep (S n) l = rep n l ++ l.
Proof.
  induction n as [|n IH]; [apply app_nil_r|].
  change (rep (S (S n)) l) with (l ++ rep (S n) l). rewrite IH at 1. change (rep (S n) l) with (l ++ rep n l). apply app_assoc.
Qed.
Lemma rep_one {A} n (a : A) : rep n [a] = repeat a n.
Proof. induction n as [|n IH]; [reflexivity|]. change (rep (S n) [a]) with (a :: rep n [a]). rewrite IH. reflexivity. Qed.

(* the keys kpath n denotes *)
Definition ks (n : nat) : list bytes := repeat [x6b] n.

Lemma letter_key b : unquoted_key_char b = true -> simple_key_tok [b] [b].
Proof. intro H. right. right. split; [split; [discriminate|unfold all; cbn [forallb]; rewrite H; reflexivity]|reflexivity]. Qed.

Lemma kpath_tok n : key_tok (kpath (S n)) (ks (S n)).
Proof.
  induction n as [|n IH]; [apply key_one, letter_key; reflexivity|].
  exact (key_dot [x6b] [x6b] [] [] _ _ (letter_key x6b eq_refl) eq_refl eq_refl IH).
Qed.

Lemma one_tok : val_tok [x31] (AInt 1).
Proof.
  apply v_integer. left. exists [], false, [x31], [x31]. split; [reflexivity|]. split; [left; auto|].
  split; [|reflexivity]. left. exists x31. auto.
Qed.

(* [t] and {k=t} *)
Definition arr1 (a : aval) : aval := AArr [a].
Definition inl1 (p : list bytes) (a : aval) : aval := AInl [(p, a)].

Lemma arr1_tok t a : val_tok t a -> val_tok ([x5b] ++ t ++ [x5d]) (arr1 a).
Proof.
  intro H. pose proof (v_array _ _ [] (av_last [] t a [] [] wscn_nil H wscn_nil (or_introl eq_refl)) wscn_nil) as Hv.
  cbn [app] in Hv. rewrite app_nil_r in Hv. exact Hv.
Qed.
Lemma inl1_tok k p t a : key_tok k p -> val_tok t a -> val_tok (([x7b] ++ k ++ [x3d]) ++ t ++ [x7d]) (inl1 p a).
Proof.
  intros Hk H. pose proof (v_inline [] _ _ [] eq_refl (ik_last k p [] [] t a Hk eq_refl eq_refl H) eq_refl) as Hv.
  cbn [app] in *. rewrite <- app_assoc in *. exact Hv.
Qed.

(* o…o t c…c *)
Lemma nest_tok (o c : bytes) (f : aval -> aval) :
  (forall t a, val_tok t a -> val_tok (o ++ t ++ c) (f a)) ->
  forall n t a, val_tok t a -> val_tok (rep n o ++ t ++ rep n c) (Nat.iter n f a).
Proof.
  intros Hf n t a Ht. induction n as [|n IH]; [cbn [rep repeat concat app Nat.iter nat_rect]; rewrite app_nil_r; exact Ht|].
  rewrite (rep_snoc n c). change (rep (S n) o) with (o ++ rep n o).
  replace ((o ++ rep n o) ++ t ++ rep n c ++ c) with (o ++ (rep n o ++ t ++ rep n c) ++ c) by (rewrite <- !app_assoc; reflexivity).
  apply Hf, IH.
Qed.

Lemma deep_value_tok na segs :
  val_tok (deep_value na (S segs)) (Nat.iter na arr1 (inl1 (ks (S segs)) (AInt 1))).
Proof.
  replace (deep_value na (S segs)) with (rep na [x5b] ++ (([x7b] ++ kpath (S segs) ++ [x3d]) ++ [x31] ++ [x7d]) ++ rep na [x5d])
    by (unfold deep_value; rewrite !rep_one, <- !app_assoc; reflexivity).
  apply (nest_tok [x5b] [x5d] arr1 arr1_tok), inl1_tok; [apply kpath_tok|apply one_tok].
Qed.

(* one line *)
Lemma keyval_line k p t a : key_tok k p -> val_tok t a -> expression_tok (k ++ [x3d] ++ t) [SKeyVal p a].
Proof.
  intros Hk Ht.
  pose proof (ex_keyval [] _ p a [] [] eq_refl (ex_intro _ k (ex_intro _ [] (ex_intro _ [] (ex_intro _ t
               (conj eq_refl (conj Hk (conj eq_refl (conj eq_refl Ht)))))))) eq_refl (or_introl eq_refl)) as H.
  cbn [app] in *. rewrite app_nil_r in H. exact H.
Qed.
Lemma header_line arr k p : key_tok k p ->
  expression_tok (topen arr ++ k ++ tclose arr) [if arr then SArrHeader p else SHeader p].
Proof.
  intro Hk. assert (Ht : table_tok arr (topen arr ++ [] ++ k ++ [] ++ tclose arr) p)
    by (apply table_tok_eq; exists [], k, []; repeat split; exact Hk).
  destruct arr.
  - pose proof (ex_array_table [] _ p [] [] eq_refl Ht eq_refl (or_introl eq_refl)) as H.
    cbn [app topen tclose] in *. rewrite app_nil_r in H. exact H.
  - pose proof (ex_std_table [] _ p [] [] eq_refl Ht eq_refl (or_introl eq_refl)) as H.
    cbn [app topen tclose] in *. rewrite app_nil_r in H. exact H.
Qed.

Lemma a_tok : key_tok [x61] [[x61]].
Proof. apply key_one, letter_key. reflexivity. Qed.

Lemma nested_arrays_text n : toml_text (nested_arrays (S n)) [SKeyVal [[x61]] (Nat.iter n arr1 (AArr []))].
Proof.
  replace (nested_arrays (S n)) with ([x61] ++ [x3d] ++ rep n [x5b] ++ ([x5b] ++ [] ++ [x5d]) ++ rep n [x5d])
    by (unfold nested_arrays; rewrite <- !rep_one, rep_snoc, <- !app_assoc; reflexivity).
  apply toml_text_plain; [discriminate|]. apply toml_one, (keyval_line [x61] _ _ _ a_tok).
  apply (nest_tok [x5b] [x5d] arr1 arr1_tok), v_array_empty, wscn_nil.
Qed.

Lemma f12_text levels segs :
  toml_text (f12 levels (S segs)) [SKeyVal [[x61]] (Nat.iter levels (inl1 (ks (S segs))) (AInt 1))].
Proof.
  unfold f12. apply toml_text_plain; [discriminate|]. apply toml_one, (keyval_line [x61] _ _ _ a_tok).
  apply nest_tok; [|apply one_tok]. intros t a. apply inl1_tok, kpath_tok.
Qed.
Lemma nested_inline_f12 n : nested_inline n = f12 n 1.
Proof. unfold nested_inline, f12. rewrite rep_one. reflexivity. Qed.

Lemma dotted_key_text n : toml_text (dotted_key (S n)) [SKeyVal (ks (S n)) (AInt 1)].
Proof. apply toml_text_plain; [discriminate|]. exact (toml_one _ _ (keyval_line _ _ _ _ (kpath_tok n) one_tok)). Qed.
Lemma header_path_text n : toml_text (header_path (S n)) [SHeader (ks (S n))].
Proof. apply toml_text_plain; [discriminate|]. exact (toml_one _ _ (header_line false _ _ (kpath_tok n))). Qed.
Lemma aot_path_text n : toml_text (aot_path (S n)) [SArrHeader (ks (S n))].
Proof. apply toml_text_plain; [discriminate|]. exact (toml_one _ _ (header_line true _ _ (kpath_tok n))). Qed.

(* the headers of `deepest`, then whatever follows them *)
Lemma aot_headers_tok t l : toml_tok t l -> forall h a, 1 <= a ->
  toml_tok (concat (map (fun j => [x5b; x5b] ++ kpath j ++ [x5d; x5d; x0a]) (seq a h)) ++ t)
           (map (fun j => SArrHeader (ks j)) (seq a h) ++ l).
Proof.
  intros Ht h. induction h as [|h IH]; intros a Ha; [exact Ht|]. destruct a as [|a]; [lia|].
  pose proof (toml_more _ _ [x0a] _ _ (header_line true _ _ (kpath_tok a)) (or_introl eq_refl) (IH (S (S a)) ltac:(lia))) as H.
  cbn [seq map concat]. unfold topen, tclose in H. rewrite <- !app_assoc in *. exact H.
Qed.

Lemma deepest_text h kk na segs :
  toml_text (deepest (S h) (S kk) na (S segs))
            (map (fun j => SArrHeader (ks j)) (seq 1 (S h)) ++ [SKeyVal (ks (S kk)) (Nat.iter na arr1 (inl1 (ks (S segs)) (AInt 1)))]).
Proof.
  apply toml_text_plain; [discriminate|].
  apply (aot_headers_tok (kpath (S kk) ++ [x3d] ++ deep_value na (S segs))); [|lia].
  apply toml_one, keyval_line; [apply kpath_tok|apply deep_value_tok].
Qed.

(* what the definition rules give is what the parser gives (Proofs/DepthWitness.v) *)
Lemma depth_of_derived s l n : toml_text s l -> derived_depth l = Some n -> depth_of s = Some n.
Proof. intros Ht H. destruct (document_depth_derived s l n Ht H) as (d & Hd & <-). unfold depth_of. rewrite Hd. reflexivity. Qed.

(* ---- below the limit: accepted, with the expected depth ----------------------------------- *)
(* the definition rules, run on the statements of the five shapes *)
Lemma below_sweep :
  Forall (fun n => map derived_depth
                     [[SKeyVal [[x61]] (Nat.iter n arr1 (AArr []))]; [SKeyVal [[x61]] (Nat.iter (S n) (inl1 (ks 1)) (AInt 1))];
                      [SKeyVal (ks (S n)) (AInt 1)]; [SHeader (ks (S n))]; [SArrHeader (ks (S n))]]
                   = map Some [S n + 1; S n + 1; S n; S n + 1; S n + 2])
         (seq 0 (LIMIT - 1)).
Proof. unfold LIMIT. cbn [Nat.sub seq]. repeat (constructor; [vm_compute; reflexivity|]). constructor. Qed.

Lemma depth_of_accepted s d : depth_of s = Some d -> accepted s = true.
Proof. unfold depth_of, accepted. destruct (parse_document s); congruence. Qed.

Lemma below_depths n : 1 <= n < LIMIT ->
  depth_of (nested_arrays n) = Some (n + 1) /\ depth_of (nested_inline n) = Some (n + 1) /\
  depth_of (dotted_key n) = Some n /\ depth_of (header_path n) = Some (n + 1) /\
  depth_of (aot_path n) = Some (n + 2).
Proof.
  intro Hn. destruct n as [|m]; [lia|].
  pose proof (proj1 (Forall_forall _ _) below_sweep m ltac:(apply in_seq; lia)) as H. injection H as H1 H2 H3 H4 H5.
  rewrite nested_inline_f12.
  repeat split; eapply depth_of_derived; eauto using nested_arrays_text, f12_text, dotted_key_text, header_path_text, aot_path_text.
Qed.

Lemma below_accepted n : 1 <= n < LIMIT ->
  accepted (nested_arrays n) = true /\ accepted (nested_inline n) = true /\
  accepted (dotted_key n) = true /\ accepted (header_path n) = true /\ accepted (aot_path n) = true.
Proof.
  intro Hn. destruct (below_depths n Hn) as (A & B & C & D & E).
  repeat split; eapply depth_of_accepted; eassumption.
Qed.

(* ---- at and above the limit: the recursion-limit error ------------------------------------ *)
(* arrays and inline tables: for every n, by induction (Proofs/DepthLimit.v) *)
Lemma limit_error_arrays n : LIMIT <= n -> limit_err (nested_arrays n) = true.
Proof.
  intro Hn. unfold limit_err, nested_arrays.
  destruct (doc_arrays_limit n (repeat x5d n) Hn) as [at_ H]. rewrite H. reflexivity.
Qed.
Lemma limit_error_inline n : LIMIT <= n -> limit_err (nested_inline n) = true.
Proof.
  intro Hn. unfold limit_err, nested_inline.
  destruct (doc_inlines_limit n ([x31] ++ repeat x7d n) Hn) as [at_ H]. rewrite H. reflexivity.
Qed.

(* key paths (dotted key, header, array-of-tables header): swept *)
Definition above_ok (n : nat) : bool :=
  limit_err (dotted_key n) && limit_err (header_path n) && limit_err (aot_path n).

Lemma above_sweep : forallb above_ok (seq LIMIT 41) = true.
Proof. vm_compute. reflexivity. Qed.

Lemma limit_error_sweep n : LIMIT <= n <= LIMIT + 40 ->
  limit_err (nested_arrays n) = true /\ limit_err (nested_inline n) = true /\
  limit_err (dotted_key n) = true /\ limit_err (header_path n) = true /\ limit_err (aot_path n) = true.
Proof.
  intro Hn. pose proof (sweep_lift above_ok LIMIT 41 above_sweep n ltac:(lia)) as H.
  unfold above_ok in H. repeat (apply andb_true_iff in H as [H ?]).
  repeat split; try assumption; [apply limit_error_arrays | apply limit_error_inline]; lia.
Qed.

(* ---- the F12 shape: inline tables x dotted keys -------------------------------------------- *)
(* Rejection is decided two levels from the bottom: the innermost table is as deep as its key
   path is long, and the pair that holds it fails the depth check of table_from_pairs.  The error
   raised there passes through every enclosing `{k.….k=`. *)
(* the input at the value inside `{` key `=` *)
Definition enter (k : bytes) (i : input) : input :=
  advance 0 (advance 1 (adv ([] ++ k ++ []) (advance 1 (mkIn (rest i) (pos i) (S (depth i)))))).
Fixpoint enter_n (n : nat) (k : bytes) (i : input) : input :=
  match n with 0 => i | S n => enter_n n k (enter k i) end.

Lemma brace_key_cut n f i V e j : S (depth i) < LIMIT -> S n < LIMIT ->
  rest i = x7b :: kpath (S n) ++ x3d :: x7b :: V ->
  value_f f (enter (kpath (S n)) i) = Cut e j -> value_f (S f) i = Cut e j.
Proof.
  intros Hd Hn Hr Hv. cbn [value_f]. rewrite (value_step_brace _ _ _ Hr).
  unfold check_recursion. cbn [set_depth depth]. rewrite (proj2 (Nat.leb_gt _ _) Hd).
  unfold enter in Hv. set (i1 := mkIn (rest i) (pos i) (S (depth i))) in *. set (i2 := advance 1 i1) in *.
  assert (R2 : rest i2 = [] ++ kpath (S n) ++ [] ++ x3d :: x7b :: V) by (unfold i2; cbn [advance rest i1]; rewrite Hr; reflexivity).
  destruct (key_complete i2 [] _ _ [] _ eq_refl (kpath_tok n) eq_refl R2 (ex_intro _ x3d (ex_intro _ _ (conj eq_refl (or_introl eq_refl)))))
    as (kp & Hk & _); [unfold ks; rewrite repeat_length; exact Hn|].
  set (i3 := adv ([] ++ kpath (S n) ++ []) i2) in *.
  assert (R3 : rest i3 = x3d :: x7b :: V) by (apply (rest_adv _ _ i2); rewrite R2, <- !app_assoc; reflexivity).
  assert (Hkv : inline_keyval (value_f f) i2 = Cut e j).
  { unfold inline_keyval. rewrite (bind_ok _ _ _ _ _ Hk). apply bind_cut, cut_err_cut.
    assert (Hsep : context (byte_ KEYVAL_SEP) i3 = Ok x3d (advance 1 i3))
      by (unfold context; rewrite (DepthLimit.byte_ok KEYVAL_SEP i3 _ R3); reflexivity).
    rewrite (bind_ok _ _ _ _ _ Hsep).
    assert (Hws : span_ Trivia.ws (advance 1 i3) = Ok (pos (advance 1 i3), (pos (advance 1 i3) + 0)%N) (advance 0 (advance 1 i3))).
    { unfold span_. rewrite (ws_stop (advance 1 i3) x7b V); [reflexivity|cbn [advance rest]; rewrite R3; reflexivity|reflexivity]. }
    rewrite (bind_ok _ _ _ _ _ Hws). apply bind_cut. exact Hv. }
  assert (Ht : inline_table (value_f f) i1 = Cut e j).
  { unfold inline_table. rewrite (bind_ok _ _ _ _ _ (DepthLimit.byte_ok INLINE_TABLE_OPEN i1 _ Hr)). fold i2.
    apply bind_cut, cut_err_cut, try_map_cut, bind_cut. unfold separated0. rewrite Hkv. reflexivity. }
  change (set_depth (S (depth i)) i) with i1. rewrite Ht. reflexivity.
Qed.

Lemma braces_cut n e j : S n < LIMIT -> forall k f i V, k + depth i < LIMIT ->
  rest i = rep k ([x7b] ++ kpath (S n) ++ [x3d]) ++ x7b :: V ->
  value_f f (enter_n k (kpath (S n)) i) = Cut e j -> value_f (k + f) i = Cut e j.
Proof.
  intros Hn k. induction k as [|k IH]; intros f i V Hd Hr Hv; [exact Hv|].
  assert (Hb : exists V', rep k ([x7b] ++ kpath (S n) ++ [x3d]) ++ x7b :: V = x7b :: V') by (destruct k; eexists; reflexivity).
  destruct Hb as [V' Hb].
  assert (Hr' : rest i = x7b :: kpath (S n) ++ x3d :: x7b :: V').
  { rewrite Hr, <- Hb. change (rep (S k) ?o) with (o ++ rep k o). rewrite <- !app_assoc. reflexivity. }
  apply (brace_key_cut n _ i V'); [lia|exact Hn|exact Hr'|].
  apply (IH f _ V); [cbn [enter advance adv depth]; lia| |exact Hv].
  rewrite <- Hb in Hr'. unfold enter, adv. cbn [advance rest skipn]. rewrite Hr'. cbn [skipn app].
  rewrite app_nil_r, skipn_app_len. reflexivity.
Qed.

Definition limit_cut {A} (r : Winnow.res A) : bool :=
  match r with Cut (mkErr (Some RecursionLimit) false) _ => true | _ => false end.

(* k levels around the two that decide, evaluated at the input where the k levels leave them *)
Lemma f12_rejected k n : k < LIMIT -> S n < LIMIT ->
  let vt := rep (2 + k) ([x7b] ++ kpath (S n) ++ [x3d]) ++ [x31] ++ rep (2 + k) [x7d] in
  k <= length vt ->
  limit_cut (value_f (S (length vt) - k) (enter_n k (kpath (S n)) (mkIn vt 2 0))) = true ->
  limit_err (f12 (2 + k) (S n)) = true.
Proof.
  intros Hk Hn vt Hlen Hc. unfold limit_err, f12. fold vt.
  destruct (doc_value_limit vt x7b _ eq_refl eq_refl) as [at_ H]; [|rewrite H; reflexivity].
  unfold value_. cbn [rest].
  destruct (value_f (S (length vt) - k) _) as [? ?|? ?|[[[]|] []] j|?] eqn:E; try discriminate Hc.
  exists j. replace (S (length vt)) with (k + (S (length vt) - k)) by lia.
  eapply (braces_cut n _ _ Hn k); [cbn [depth]; lia| |exact E].
  cbn [rest]. unfold vt. cbn [Nat.add]. rewrite (rep_snoc (S k)), (rep_snoc k), <- !app_assoc. reflexivity.
Qed.

Lemma f12_3x79_rejected : limit_err (f12 3 79) = true.
Proof. apply (f12_rejected 1 78); [unfold LIMIT; lia..|apply Nat.leb_le; reflexivity|vm_compute; reflexivity]. Qed.
Lemma f12_2x40_rejected : limit_err (f12 2 40) = true.
Proof. apply (f12_rejected 0 39); [unfold LIMIT; lia..|apply Nat.leb_le; reflexivity|vm_compute; reflexivity]. Qed.
Lemma f12_40x79_rejected : limit_err (f12 40 79) = true.
Proof. apply (f12_rejected 38 78); [unfold LIMIT; lia..|apply Nat.leb_le; reflexivity|vm_compute; reflexivity]. Qed.
(* the products that stay below the limit are still accepted: depth = 1 (root) + levels*segs *)
Lemma f12_products_accepted :
  depth_of (f12 2 39) = Some 79 /\ depth_of (f12 3 26) = Some 79 /\ depth_of (f12 1 79) = Some 80 /\
  depth_of (f12 79 1) = Some 80 /\ depth_of (f12 13 6) = Some 79.
Proof. repeat split; (eapply depth_of_derived; [apply f12_text|vm_compute; reflexivity]). Qed.

(* ---- the bounds are attained ---------------------------------------------------------------- *)
(* the depth of a value of this shape, from the side conditions and the datum of its derivation *)
Lemma deep_value_depth na segs :
  value_depth_of (deep_value na (S segs)) =
  let a := Nat.iter na arr1 (inl1 (ks (S segs)) (AInt 1)) in if vgoodb 0 a then Some (ddepth (den a)) else None.
Proof.
  cbv zeta. pose proof (value_depth_derived _ _ (deep_value_tok na segs)) as H. unfold value_depth_of.
  destruct (vgoodb 0 _).
  - destruct H as (v & -> & <-). reflexivity.
  - destruct (parse_value_raw _) as [v| |]; [destruct (H v eq_refl)|reflexivity..].
Qed.

(* inline_depth_bound is tight: LIMIT - 1 *)
Lemma inline_bound_attained : value_depth_of (deep_value 0 (LIMIT - 1)) = Some (LIMIT - 1).
Proof. change (LIMIT - 1) with (S (LIMIT - 2)). rewrite deep_value_depth. vm_compute. reflexivity. Qed.
(* value_depth_bound is tight: 2 * LIMIT - 3 *)
Lemma value_bound_attained : value_depth_of (deep_value (LIMIT - 2) (LIMIT - 1)) = Some (2 * LIMIT - 3).
Proof. change (LIMIT - 1) with (S (LIMIT - 2)). rewrite deep_value_depth. vm_compute. reflexivity. Qed.
(* one more array, or one more key segment, is refused *)
Lemma value_bound_next_rejected :
  value_depth_of (deep_value (LIMIT - 1) (LIMIT - 1)) = None /\
  value_depth_of (deep_value (LIMIT - 2) LIMIT) = None.
Proof.
  change LIMIT with (S (LIMIT - 1)) at 2 4. change (LIMIT - 1) with (S (LIMIT - 2)) at 2.
  rewrite !deep_value_depth. vm_compute. split; reflexivity.
Qed.

(* document_depth_bound is tight: 5 * LIMIT - 6, by a document of about 7 KB *)
Lemma doc_bound_attained :
  depth_of (deepest (LIMIT - 1) (LIMIT - 1) (LIMIT - 2) (LIMIT - 1)) = Some DEPTH_BOUND.
Proof.
  change (LIMIT - 1) with (S (LIMIT - 2)). eapply depth_of_derived; [apply deepest_text|]. vm_compute. reflexivity.
Qed.
Lemma doc_bound_size : N.of_nat (length (deepest (LIMIT - 1) (LIMIT - 1) (LIMIT - 2) (LIMIT - 1))) = 7111%N.
Proof. vm_compute. reflexivity. Qed.
