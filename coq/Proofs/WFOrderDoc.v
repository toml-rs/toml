(* Proofs/WFOrderDoc.v — sections in Display's order, part 3: documents whose key/value lines have undotted keys (`nodot`:
   no table made of dotted keys anywhere in the tree; dotted keys inside inline tables and in headers are fine), read
   backwards: a state without tables made of dotted keys comes from such a state, and the key path of the line was empty
   (`keyval_back`, `header_back`, `finalize_back`).  So every statement of such a document has a single key, and the
   specification decides it (Proofs/WFOrderDotDoc.v). *)
From TV Require Import Base.Prelude.
From TV Require Import Model.Tree Model.Parse Model.Document.
From TV Require Import
                       Proofs.PrintBackSecs Proofs.PrintBackDAll.
From TV Require Proofs.PrintBackDState.
From TV Require Import
                       Proofs.WFParseState Proofs.WFOrderBase Proofs.WFOrderState.
From TV Require Import Proofs.KvFacts.
From TV Require Import Proofs.DocumentOps.
Require Import Lia NArith Sorting.Sorted Sorting.Permutation.

(* ---- no table made of dotted keys ---------------------------------------------------------------------------------------- *)
Fixpoint nodot (t : tbl) {struct t} : bool :=
  match t with
  | Tbl items _ _ _ _ _ =>
    forallb (fun kv => match snd kv with
                       | ITable sub => negb (t_dotted sub) && nodot sub
                       | IAot ts _ => forallb (fun e => negb (t_dotted e) && nodot e) ts
                       | _ => true
                       end) items
  end.
Definition nodoti (it : item) : bool :=
  match it with
  | ITable sub => negb (t_dotted sub) && nodot sub
  | IAot ts _ => forallb (fun e => negb (t_dotted e) && nodot e) ts
  | _ => true
  end.
Definition nds (m : list (key * item)) : bool := forallb (fun kv => nodoti (snd kv)) m.
Lemma nodot_eq t : nodot t = nds (t_items t).
Proof. destruct t; reflexivity. Qed.
Lemma nds_app a b : nds (a ++ b) = nds a && nds b.
Proof. apply forallb_app. Qed.
Lemma nodot_set_items t m : nodot (t_set_items t m) = nds m.
Proof. destruct t; reflexivity. Qed.
Lemma nodot_set_span t sp : nodot (t_set_span t sp) = nodot t.
Proof. destruct t; reflexivity. Qed.

Lemma nds_set_back m k k0 it it' : kv_get m k = Some (k0, it) -> nds (kv_set m k it') = true ->
  nodoti it' = true /\ ((nodoti it = true) -> nds m = true).
Proof.
  intros G H. destruct (kv_get_split m k k0 it G) as (A & B & -> & _ & Hs & _). rewrite Hs, nds_app in H. unfold nds at 2 in H. cbn [forallb snd] in H.
  apply andb_true_iff in H as [HA H']. apply andb_true_iff in H' as [Hi HB]. split; [exact Hi|]. intro Hit. rewrite nds_app. unfold nds at 2. cbn [forallb snd].
  rewrite HA, Hit. exact HB.
Qed.
Lemma nds_push_back m k it : nds (kv_push m k it) = true -> nds m = true /\ nodoti it = true.
Proof. unfold kv_push. rewrite nds_app. unfold nds at 2. cbn [forallb snd]. rewrite andb_true_r. apply andb_true_iff. Qed.
Lemma nds_remove_back m k k0 it : kv_get m k = Some (k0, it) -> nds (kv_remove m k) = true -> nodoti it = true -> nds m = true.
Proof.
  intros G H Hit. destruct (kv_get_split m k k0 it G) as (A & B & -> & _ & _ & Hr). rewrite Hr, nds_app in H. apply andb_true_iff in H as [HA HB].
  rewrite nds_app. unfold nds at 2. cbn [forallb snd]. rewrite HA, Hit. exact HB.
Qed.

(* from the tree after descend_path back to the tree before *)
Lemma dctx_nodot_back d p r r' par par' : dctx_rel d p r r' par par' -> hframe par par' ->
  nodot r' = true -> nodot par' = true /\ (nodot par = true -> nodot r = true).
Proof.
  induction 1 as [t t'|t k p sub par par' G Hc IH|t k p k0 sub sub' par par' G Hc IH|t k p k0 ts sp last rinit last' par par' G Er Hc IH]; intros Hd H.
  - auto.
  - rewrite nodot_set_items in H. apply nds_push_back in H as [Hm Hs]. cbn [nodoti] in Hs. apply andb_true_iff in Hs as [_ Hs].
    destruct (IH Hd Hs) as [H1 _]. split; [exact H1|]. intros _. rewrite nodot_eq. exact Hm.
  - rewrite nodot_set_items in H. destruct (nds_set_back _ _ _ _ _ G H) as [Hs Hback]. cbn [nodoti] in Hs. apply andb_true_iff in Hs as [Hds Hs].
    destruct (IH Hd Hs) as [H1 H2]. split; [exact H1|]. intro Hp. rewrite nodot_eq. apply Hback. cbn [nodoti].
    destruct (dctx_hframe _ _ _ _ _ _ Hc Hd) as (_ & _ & <- & _). rewrite Hds, (H2 Hp). reflexivity.
  - rewrite nodot_set_items in H. destruct (nds_set_back _ _ _ _ _ G H) as [Hs Hback]. cbn [nodoti rev] in Hs. rewrite forallb_app in Hs.
    apply andb_true_iff in Hs as [Hinit Hl]. cbn [forallb] in Hl. rewrite andb_true_r in Hl. apply andb_true_iff in Hl as [Hdl Hl].
    destruct (IH Hd Hl) as [H1 H2]. split; [exact H1|]. intro Hp. rewrite nodot_eq. apply Hback. cbn [nodoti].
    assert (Ets : ts = rev rinit ++ [last]) by (rewrite <- (rev_involutive ts), Er; reflexivity).
    rewrite Ets, forallb_app, Hinit. cbn [forallb]. destruct (dctx_hframe _ _ _ _ _ _ Hc Hd) as (_ & _ & <- & _). rewrite Hdl, (H2 Hp). reflexivity.
Qed.

(* a dotted key leaves a dotted table behind *)
Lemma nds_false_in m k it : In (k, it) m -> nodoti it = false -> nds m = false.
Proof.
  intros Hin Hf. unfold nds. destruct (forallb (fun kv => nodoti (snd kv)) m) eqn:E; [|reflexivity]. rewrite forallb_forall in E. specialize (E _ Hin). cbn [snd] in E. congruence.
Qed.
Lemma in_kv_push m k it : In (k, it) (kv_push m k it).
Proof. unfold kv_push. apply in_or_app. right. left. reflexivity. Qed.
Lemma in_kv_set m k k0 it it' : kv_get m k = Some (k0, it) -> In (k0, it') (kv_set m k it').
Proof. intro G. destruct (kv_get_split m k k0 it G) as (A & B & _ & _ & Hs & _). rewrite Hs. apply in_or_app. right. left. reflexivity. Qed.

Lemma dctx_dotted_seen d p r r' par par' : dctx_rel d p r r' par par' -> p <> [] -> t_dotted par' = true -> nodot r' = false.
Proof.
  induction 1 as [t t'|t k p sub par par' G Hc IH|t k p k0 sub sub' par par' G Hc IH|t k p k0 ts sp last rinit last' par par' G Er Hc IH]; intros Hne Hd.
  - congruence.
  - rewrite nodot_set_items. apply (nds_false_in _ k (ITable sub) (in_kv_push _ _ _)). cbn [nodoti].
    destruct p as [|k1 p1]; [inversion Hc; subst; rewrite Hd; reflexivity|]. rewrite IH; [apply andb_false_r|discriminate|exact Hd].
  - rewrite nodot_set_items. apply (nds_false_in _ k0 (ITable sub') (in_kv_set _ _ _ _ _ G)). cbn [nodoti].
    destruct p as [|k1 p1]; [inversion Hc; subst; rewrite Hd; reflexivity|]. rewrite IH; [apply andb_false_r|discriminate|exact Hd].
  - rewrite nodot_set_items. apply (nds_false_in _ k0 _ (in_kv_set _ _ _ _ _ G)). cbn [nodoti rev]. rewrite forallb_app. cbn [forallb].
    destruct p as [|k1 p1]; [inversion Hc; subst; rewrite Hd; cbn [negb andb]; apply andb_false_r|]. rewrite IH; [rewrite andb_false_r; apply andb_false_r|discriminate|exact Hd].
Qed.

Lemma BbI_values m P : Forall (fun kv : key * item => is_tab (snd kv) = false) m -> BbI m P = [].
Proof. induction 1 as [|[k it] m H _ IH]; [reflexivity|]. cbn [BbI flat_map]. fold (BbI m P). rewrite IH. destruct it; try discriminate. reflexivity. Qed.

(* ---- undotted keys only: from a state back to the one before ----------------------------------------------------------- *)
Definition nodot_st (st : pstate) : bool := nodot (st_root st) && nodot (st_current st).

Lemma nds_set_same m k k0 it it' : kv_get m k = Some (k0, it) -> nodoti it' = nodoti it -> nds (kv_set m k it') = nds m.
Proof.
  intros G E. destruct (kv_get_split m k k0 it G) as (A & B & -> & _ & Hs & _). rewrite Hs, !nds_app. unfold nds at 2 4. cbn [forallb snd]. rewrite E. reflexivity.
Qed.
Lemma nodot_set_dotted_spans : forall path t e, nodot (set_dotted_spans t path e) = nodot t.
Proof.
  induction path as [|k ptl IH]; intros t e; [reflexivity|].
  destruct (set_dotted_spans_cons t k ptl e) as [->|(k0 & sub & sp & G & ->)]; [reflexivity|].
  rewrite nodot_set_items, nodot_eq. apply (nds_set_same _ _ _ _ _ G). cbn [nodoti].
  destruct (set_dotted_spans_hframe (t_set_span sub sp) ptl e) as (_ & _ & -> & _). rewrite IH, dotted_set_span, nodot_set_span. reflexivity.
Qed.

Lemma keyval_back st path k v st' : on_keyval_sp st path k (IValue v) = COk st' -> nodot_st st' = true ->
  path = [] /\ nodot_st st = true.
Proof.
  intros H Hn. apply on_keyval_sp_inv in H as (st0 & E0 & ->).
  unfold nodot_st in *. cbn [st_root st_current] in Hn. rewrite nodot_set_dotted_spans in Hn.
  apply on_keyval_dctx in E0 as (cur' & par & Hctx & Hd & _ & ->). cbn [st_root st_current] in Hn.
  apply andb_true_iff in Hn as [Hr Hc].
  assert (Hcur0 : nodot (kv_cur st (IValue v)) = nodot (st_current st)).
  { unfold kv_cur. destruct (t_span (st_current st)); [destruct (item_span (IValue v)); [apply nodot_set_span|reflexivity]|reflexivity]. }
  destruct path as [|k1 p1].
  - split; [reflexivity|]. inversion Hctx; subst. rewrite nodot_set_items in Hc. apply nds_push_back in Hc as [Hc _].
    rewrite Hr, <- Hcur0, nodot_eq, Hc. reflexivity.
  - exfalso. rewrite (dctx_dotted_seen true _ _ _ _ _ Hctx ltac:(discriminate)) in Hc; [discriminate|]. rewrite dotted_set_items. exact Hd.
Qed.

Lemma empty_nodot t : tbl_is_empty t = true -> nodot t = true.
Proof.
  unfold tbl_is_empty. rewrite nodot_eq. unfold nds. induction (t_items t) as [|[k it] l IH]; [reflexivity|]. cbn [forallb snd]. intro H.
  apply andb_true_iff in H as [H1 H2]. rewrite (IH H2). destruct it; try discriminate. reflexivity.
Qed.

Definition name_free (st : pstate) : Prop :=
  st_path st <> [] -> st_is_array st = false ->
  exists ppath k par, pop_key (st_path st) = Some (ppath, k) /\ reach (st_root st) ppath = Some par /\ kv_get (t_items par) (k_key k) = None.

Lemma finalize_back st st1 : finalize_table st = COk st1 -> name_free st -> nodot (st_root st1) = true -> nodot_st st = true.
Proof.
  intros Hf Hnf Hn. rewrite finalize_table_eq in Hf. unfold nodot_st. destruct (pop_key (st_path st)) as [[ppath k]|] eqn:Ep.
  - destruct (with_table_at (st_root st) ppath false ((if st_is_array st then f_fin_aot else f_fin_std) k (st_current st))) as [[root' u]| |] eqn:E; try discriminate.
    injection Hf as <-. cbn [finalized st_root] in Hn. destruct (wta_dctx false _ _ _ _ _ E) as (par & par' & Hfp & Hc).
    assert (Hpne : st_path st <> []) by (intro X; rewrite X in Ep; discriminate).
    assert (G : hframe par par' /\ (nodot par' = true -> nodot par = true /\ nodot (st_current st) = true)).
    { destruct (st_is_array st) eqn:Ea.
      - unfold f_fin_aot in Hfp. destruct (kv_get (t_items par) (k_key k)) as [[k0 [|v0|t0|ts asp]]|] eqn:G; try discriminate; injection Hfp as <-.
        + split; [apply hframe_set_items|]. rewrite nodot_set_items. intro Hnd. destruct (nds_set_back _ _ _ _ _ G Hnd) as [Hi Hb]. cbn [nodoti] in Hi.
          rewrite forallb_app in Hi. apply andb_true_iff in Hi as [Hts Hcur]. cbn [forallb] in Hcur. rewrite andb_true_r in Hcur. apply andb_true_iff in Hcur as [_ Hcur].
          split; [rewrite nodot_eq; apply Hb; exact Hts|exact Hcur].
        + split; [apply hframe_set_items|]. rewrite nodot_set_items. intro Hnd. apply nds_push_back in Hnd as [Hm Hi]. cbn [nodoti forallb] in Hi.
          rewrite andb_true_r in Hi. apply andb_true_iff in Hi as [_ Hcur]. split; [rewrite nodot_eq; exact Hm|exact Hcur].
      - destruct (Hnf Hpne Ea) as (pp & kk0 & par0 & Ep' & Hr & Hg). rewrite Ep in Ep'. injection Ep' as <- <-.
        destruct (dctx_reach _ _ _ _ _ _ Hc) as [_ Hpar]. rewrite (Hpar par0 Hr) in Hg.
        unfold f_fin_std in Hfp. rewrite Hg in Hfp. injection Hfp as <-. split; [apply hframe_set_items|]. rewrite nodot_set_items. intro Hnd. apply nds_push_back in Hnd as [Hm Hi]. cbn [nodoti] in Hi.
        apply andb_true_iff in Hi as [_ Hcur]. split; [rewrite nodot_eq; exact Hm|exact Hcur]. }
    destruct G as [Hd G]. destruct (dctx_nodot_back false _ _ _ _ _ Hc Hd Hn) as [Hp' Hback]. destruct (G Hp') as [Hp Hcur]. rewrite (Hback Hp), Hcur. reflexivity.
  - destruct (tbl_is_empty (st_root st)) eqn:Ee; [|discriminate]. injection Hf as <-. cbn [finalized st_root] in Hn. rewrite (empty_nodot _ Ee), Hn. reflexivity.
Qed.

Lemma start_table_back st2 path dec sp st' : start_table st2 path dec sp = COk st' -> nodot_st st' = true -> nodot (st_root st2) = true.
Proof.
  intros H Hn. destruct (start_table_dctx _ _ _ _ _ H) as (_ & _ & ppath & k & root' & par & par' & taken & _ & Hctx & -> & Htk).
  unfold nodot_st, open_table in Hn. cbn [st_root st_current] in Hn. apply andb_true_iff in Hn as [Hr Hc]. destruct taken as [t0|].
  - destruct Htk as ([k0 G] & _ & Edt & ->).
    destruct (dctx_nodot_back false _ _ _ _ _ Hctx (hframe_set_items _ _) Hr) as [Hp' Hback]. apply Hback.
    rewrite nodot_set_items in Hp'. rewrite nodot_eq. apply (nds_remove_back _ _ _ _ G Hp'). cbn [nodoti]. rewrite Edt. cbn [andb].
    rewrite nodot_eq. destruct t0; exact Hc.
  - destruct Htk as [_ ->]. destruct (dctx_nodot_back false _ _ _ _ _ Hctx (hframe_refl _) Hr) as [Hp' Hback]. apply Hback, Hp'.
Qed.

Lemma start_array_back st2 path dec sp st' : start_array_table st2 path dec sp = COk st' -> nodot_st st' = true -> nodot (st_root st2) = true.
Proof.
  intros H Hn. destruct (start_array_table_dctx _ _ _ _ _ H) as (_ & _ & ppath & k & root' & par & par' & _ & Hctx & -> & Hpar').
  unfold nodot_st, open_table in Hn. cbn [st_root st_current] in Hn. apply andb_true_iff in Hn as [Hr _]. destruct Hpar' as [[_ ->]|[_ ->]].
  - destruct (dctx_nodot_back false _ _ _ _ _ Hctx (hframe_refl _) Hr) as [Hp' Hback]. apply Hback, Hp'.
  - destruct (dctx_nodot_back false _ _ _ _ _ Hctx (hframe_set_items _ _) Hr) as [Hp' Hback]. apply Hback.
    rewrite nodot_set_items in Hp'. apply nds_push_back in Hp' as [Hm _]. rewrite nodot_eq. exact Hm.
Qed.

Lemma header_back arr st path tr sp st' : on_header arr st path tr sp = COk st' -> name_free st -> nodot_st st' = true -> nodot_st st = true.
Proof.
  unfold on_header. intros H Hnf Hn. destruct path as [|k1 p1] eqn:Epk; [discriminate|]. rewrite <- Epk in *.
  destruct (finalize_table st) as [st1| |] eqn:Ef; try discriminate. unfold take_trailing in H. cbv zeta in H.
  apply (finalize_back st st1 Ef Hnf). destruct arr; [apply (start_array_back _ _ _ _ _ H Hn)|apply (start_table_back _ _ _ _ _ H Hn)].
Qed.

Local Notation uk2' := (uk2 anyk).

(* ---- what holds through every run: unique keys, and the name of the open table is free in its parent ------------------- *)
Lemma uk2_new : uk2' tbl_new.
Proof. apply uk2_eq. split; constructor. Qed.

Definition gi (st : pstate) : Prop := uk2' (st_root st) /\ uk2' (st_current st) /\ name_free st.

Lemma gi_init : gi state_new.
Proof. split; [apply uk2_new|]. split; [apply uk2_eq; split; constructor|]. intros H. contradiction. Qed.
Lemma gi_on_ws st sp : gi st -> gi (on_ws st sp).
Proof. exact (fun H => H). Qed.

Lemma gi_keyval st path k v st' : on_keyval_sp st path k (IValue v) = COk st' -> gi st -> gi st'.
Proof.
  intros H (Hur & Huc & Hnf). destruct (PrintBackDState.on_keyval_all anyk st path k v st' H Huc (all_anyk _)) as (E1 & E2 & _ & E4 & _ & _ & Hu' & _).
  split; [rewrite E1; exact Hur|]. split; [exact Hu'|]. unfold name_free. rewrite E1, E2, E4. exact Hnf.
Qed.

Lemma gi_header arr st pre k tr sp st' : on_header arr st (pre ++ [k]) tr sp = COk st' -> gi st -> gi st'.
Proof.
  intros H (Hur & Huc & Hnf). unfold on_header in H. destruct (pre ++ [k]) as [|k1 p1] eqn:Epk; [destruct pre; discriminate|]. rewrite <- Epk in *.
  destruct (finalize_table st) as [st1| |] eqn:Ef; try discriminate.
  assert (F : exists root1, st1 = finalized st root1 /\ uk2' root1).
  { destruct (pop_key (st_path st)) as [[ppath kl]|] eqn:Ep.
    - assert (Hpne : st_path st <> []) by (intro X; rewrite X in Ep; discriminate).
      destruct (PrintBackDState.finalize_all anyk st st1 ppath kl Ep Ef Hur Huc I (all_anyk _)) as (E1 & _ & Hu1 & _).
      { intro Ea. destruct (Hnf Hpne Ea) as (pp & kk0 & par & Ep' & Hr & Hg). rewrite Ep in Ep'. injection Ep' as <- <-. eauto. }
      exists (st_root st1). auto.
    - rewrite finalize_table_eq, Ep in Ef. destruct (tbl_is_empty (st_root st)); [|discriminate]. injection Ef as <-. exists (st_current st). auto. }
  destruct F as (root1 & -> & Hu1). unfold take_trailing in H. cbv zeta in H. cbn [finalized st_root st_position st_current st_is_array st_path st_trailing] in H.
  set (st2 := mkState root1 None (st_position st) tbl_new (st_is_array st) []) in *.
  destruct arr.
  - destruct (PrintBackDState.start_array_all anyk st2 (pre ++ [k]) _ sp st' pre k H (pop_key_app pre k) Hu1 (all_anyk _) I) as (-> & _ & Hu' & _).
    unfold open_table. split; [exact Hu'|]. split; [apply uk2_eq; split; constructor|]. intros _ Ha. discriminate.
  - destruct (PrintBackDState.start_table_all anyk st2 (pre ++ [k]) _ sp st' pre k H (pop_key_app pre k) Hu1 (all_anyk _) eq_refl)
      as (T0 & -> & Hs0 & Hn0 & _ & Hu' & _ & par & Hr & Hg).
    unfold open_table. split; [exact Hu'|]. split; [apply uk2_eq; split; assumption|]. intros _ _. cbn [st_path st_root].
    exists pre, k, par. split; [apply pop_key_app|]. auto.
Qed.

