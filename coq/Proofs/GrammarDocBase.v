(* Proofs/GrammarDocBase.v — C01/C02 layer L2/L3 glue for documents: one statement of the
   document against one step of the definition rules.
     - the span bookkeeping of dotted tables (on_keyval_sp) does not touch what C09's invariant
       `Inv` (Proofs/DefsEquivSim.v) looks at, so C09's simulation `mstep_sim` applies to the
       functions document.rs actually calls;
     - a step on tree values (V = value) is a step on data (V = dval) through `absv`
       (Proofs/GrammarParam.v), in both directions. *)
From TV Require Import Base.Prelude Spec.Defs Spec.Syntax.
From TV Require Import Model.Tree Model.Parse Model.Document.
From TV Require Import Proofs.DefsEquivBase Proofs.DefsEquivKv Proofs.DefsEquivWalk
                       Proofs.DefsEquivSim Proofs.DefsEquivMain.
From TV Require Import Proofs.GrammarBase Proofs.GrammarParam.
From TV Require Import Proofs.KvFacts.
From TV Require Import Proofs.DocumentOps.
Require Import Lia.

(* ---- set_dotted_spans only rewrites spans ---------------------------------------------------------- *)
Lemma kv_set_same_abs m k k' it it' :
  kv_get m k = Some (k', it) -> abs_item it' = abs_item it -> abs_items (kv_set m k it') = abs_items m.
Proof. intros G H. apply (kv_set_map abs_kv _ _ _ _ _ G). unfold abs_kv. cbn [fst snd]. rewrite H. reflexivity. Qed.

Lemma kv_set_same_mok m k k' it it' :
  kv_get m k = Some (k', it) -> mok_item it' = mok_item it -> mok_items (kv_set m k it') = mok_items m.
Proof.
  intros G H. unfold mok_items. destruct (kv_get_split m k k' it G) as (A & C & -> & _ & -> & _).
  rewrite !forallb_app. cbn [forallb snd]. rewrite H. reflexivity.
Qed.

Lemma set_dotted_spans_facts : forall path t e,
  abs_tbl (set_dotted_spans t path e) = abs_tbl t /\ mok_tbl (set_dotted_spans t path e) = mok_tbl t
  /\ t_implicit (set_dotted_spans t path e) = t_implicit t /\ t_dotted (set_dotted_spans t path e) = t_dotted t.
Proof.
  induction path as [|k ptl IH]; intros t e; cbn [set_dotted_spans]; [auto|].
  destruct (kv_get (t_items t) (k_key k)) as [[k' it]|] eqn:G; [|auto].
  destruct it as [|v|sub|ts sp]; auto.
  set (sub1 := if t_dotted sub
               then match key_span k, e with Some ks, Some e0 => t_set_span sub (widen (t_span sub) ks e0) | _, _ => sub end
               else sub).
  assert (F1 : abs_tbl sub1 = abs_tbl sub /\ mok_tbl sub1 = mok_tbl sub /\ t_implicit sub1 = t_implicit sub
               /\ t_dotted sub1 = t_dotted sub).
  { unfold sub1. destruct (t_dotted sub) eqn:Ed; [|auto]. destruct (key_span k); [|auto]. destruct e; [|auto].
    rewrite abs_set_span, mok_set_span, implicit_set_span, dotted_set_span. auto. }
  destruct F1 as (A1 & M1 & I1 & D1). destruct (IH sub1 e) as (A2 & M2 & I2 & D2).
  rewrite abs_set_items, mok_set_items, implicit_set_items, dotted_set_items.
  rewrite (abs_tbl_eq t), (mok_tbl_eq t). split; [|split; [|auto]].
  - eapply kv_set_same_abs; [exact G|]. cbn [abs_item]. rewrite A2, A1. f_equal.
    apply kind_of_flags; [rewrite I2; exact I1|rewrite D2; exact D1].
  - eapply kv_set_same_mok; [exact G|]. cbn [mok_item]. rewrite M2, M1. reflexivity.
Qed.

Definition with_spans (st : pstate) (path : list key) (e : option N) : pstate :=
  mkState (st_root st) (st_trailing st) (st_position st) (set_dotted_spans (st_current st) path e)
          (st_is_array st) (st_path st).

Lemma on_keyval_sp_eq st path k v :
  on_keyval_sp st path k v =
  match on_keyval st path k v with COk st' => COk (with_spans st' path (item_end v)) | CErr c => CErr c | CPanic s => CPanic s end.
Proof. unfold on_keyval_sp, with_spans. destruct (on_keyval st path k v); reflexivity. Qed.

Lemma Inv_with_spans st S path e : Inv st S -> Inv (with_spans st path e) S.
Proof.
  destruct S as [T cp]. unfold Inv, with_spans. cbn [st_path st_root st_current st_is_array].
  destruct (set_dotted_spans_facts path (st_current st) e) as (A & M & I & D). rewrite A, M, I, D. exact (fun H => H).
Qed.

(* ---- one statement: the model step against the spec step on tree values --------------------------- *)
Lemma spec_step_decides (S : sstate value) m : spec_step false S m <> RUndecided.
Proof. apply spec_step_code_decides. Qed.

(* C09's simulation, for the functions document.rs calls *)
Lemma kv_step_sim st S path k v : Inv st S ->
  simstep (on_keyval_sp st path k (IValue v)) (spec_step false S (SKeyVal (keys path ++ [k_key k]) v)).
Proof.
  intro HI. rewrite on_keyval_sp_eq.
  pose proof (mstep_sim st S (MKeyVal path k v) HI) as Hs. cbn [mstep erase] in Hs.
  destruct (spec_step false S (SKeyVal (keys path ++ [k_key k]) v)) as [S1| |]; cbn [simstep] in *.
  - destruct Hs as (st' & -> & HI'). eexists. split; [reflexivity|]. apply Inv_with_spans, HI'.
  - destruct Hs as [c ->]. eauto.
  - exact I.
Qed.

Definition hdr_stmt (arr : bool) (p : list bytes) : stmt value := if arr then SArrHeader p else SHeader p.

Lemma hdr_step_sim arr st S pre k tr sp : Inv st S ->
  simstep (on_header arr st (pre ++ [k]) tr sp) (spec_step false S (hdr_stmt arr (keys pre ++ [k_key k]))).
Proof. intro HI. pose proof (mstep_sim st S (MHeader arr pre k tr sp) HI) as Hs. destruct arr; exact Hs. Qed.

(* a step the model made is a step of the rules *)
Lemma simstep_ok r (x : res (sstate value)) st1 :
  simstep r x -> x <> RUndecided -> r = COk st1 -> exists S1, x = ROk S1 /\ Inv st1 S1.
Proof.
  intros Hs Hd ->. destruct x as [S1| |]; cbn [simstep] in Hs.
  - destruct Hs as (st' & E & HI). injection E as <-. eauto.
  - destruct Hs as [c Hc]. discriminate.
  - exfalso. apply Hd. reflexivity.
Qed.

Lemma kv_step_sound st S path k v st1 :
  Inv st S -> on_keyval_sp st path k (IValue v) = COk st1 ->
  exists S1, spec_step false S (SKeyVal (keys path ++ [k_key k]) v) = ROk S1 /\ Inv st1 S1.
Proof. intros HI H. exact (simstep_ok _ _ _ (kv_step_sim st S path k v HI) (spec_step_decides S _) H). Qed.

Lemma hdr_step_sound arr st S pre k tr sp st1 :
  Inv st S -> on_header arr st (pre ++ [k]) tr sp = COk st1 ->
  exists S1, spec_step false S (hdr_stmt arr (keys pre ++ [k_key k])) = ROk S1 /\ Inv st1 S1.
Proof. intros HI H. exact (simstep_ok _ _ _ (hdr_step_sim arr st S pre k tr sp HI) (spec_step_decides S _) H). Qed.

(* ---- the same step on data ------------------------------------------------------------------------ *)
Definition dstate (S : sstate value) : sstate dval := state_map absv S.

Lemma step_to_data strict S m S1 :
  spec_step strict S m = ROk S1 -> spec_step strict (dstate S) (stmt_map absv m) = ROk (dstate S1).
Proof. intro H. unfold dstate. rewrite spec_step_smap, H. reflexivity. Qed.

(* what the model does with a statement whose step on data is x: it follows an accepted step
   and refuses a refused one *)
Definition dsim (r : cres pstate) (x : res (sstate dval)) : Prop :=
  match x with
  | ROk X => exists st' S', r = COk st' /\ Inv st' S' /\ dstate S' = X
  | _ => exists c, r = CErr c
  end.

Lemma sim_to_data r S m : simstep r (spec_step false S m) -> dsim r (spec_step false (dstate S) (stmt_map absv m)).
Proof.
  unfold dstate. rewrite spec_step_smap. pose proof (spec_step_decides S m) as Hd.
  destruct (spec_step false S m) as [S1| |]; cbn [simstep rmap dsim].
  - intros (st' & E & HI). eauto.
  - exact (fun H => H).
  - exfalso. apply Hd. reflexivity.
Qed.

(* the abstract statement made by a parsed key/value pair or header *)
Lemma kv_stmt_den path k v p a :
  p = keys path ++ [k_key k] -> absv v = den a ->
  stmt_map absv (SKeyVal (keys path ++ [k_key k]) v) = stmt_den (SKeyVal p a).
Proof. intros -> E. cbn [stmt_map stmt_den]. rewrite E. reflexivity. Qed.

Lemma hdr_stmt_den arr p :
  stmt_map absv (hdr_stmt arr p) = stmt_den (if arr then SArrHeader p else SHeader p).
Proof. destruct arr; reflexivity. Qed.

(* folding: one more statement at the front *)
Lemma spec_fold_cons {V} strict (S : sstate V) m l :
  spec_fold strict S (m :: l) = match spec_step strict S m with ROk S1 => spec_fold strict S1 l | RInvalid => RInvalid | RUndecided => RUndecided end.
Proof. reflexivity. Qed.

Lemma spec_fold_app {V} strict l1 : forall (S : sstate V) l2,
  spec_fold strict S (l1 ++ l2) =
  match spec_fold strict S l1 with ROk S1 => spec_fold strict S1 l2 | RInvalid => RInvalid | RUndecided => RUndecided end.
Proof.
  induction l1 as [|m l1 IH]; intros S l2; [reflexivity|]. cbn [app]. rewrite !spec_fold_cons.
  destruct (spec_step strict S m) as [S1| |]; [apply IH|reflexivity|reflexivity].
Qed.
