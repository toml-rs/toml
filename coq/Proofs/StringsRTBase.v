(* Proofs/StringsRTBase.v — byte-class facts (by comparison of byte values, never by a 256-way
   case split inside a goal), span_while facts, and the behaviour
   of the mini-winnow primitives on an input written `mkIn (token ++ rest) pos depth`. *)
From TV Require Import Base.Prelude Base.Utf8 Base.Winnow Gen.Consts.
From TV Require Import Model.Trivia Model.Strings Model.Write Proofs.StringsRTDefs.
From TV Require Export Base.BytesFacts Base.ListFacts Base.Utf8Facts Base.WinnowFacts.
Require Import Lia ZifyBool ZifyN ZifyNat.

(* ---- bytes as numbers ------------------------------------------------------------------- *)
Lemma n2b_b2n b : n2b (b2n b) = b.
Proof. apply BytesFacts.n2b_b2n. Qed.

Lemma b2n_n2b n : (n < 256)%N -> b2n (n2b n) = n.
Proof. apply BytesFacts.b2n_n2b. Qed.

(* turn every byte test of the goal into a comparison on [b2n b] *)
Ltac byten :=
  unfold plain, is_ctrl, is_unquoted_byte, is_cont, inr, in_class,
    BASIC_UNESCAPED, MLB_UNESCAPED, LITERAL_CHAR, MLL_CHAR, UNQUOTED_CHAR, WSCHAR, HEXDIG, NON_EOL,
    QUOTATION_MARK, APOSTROPHE, ESCAPE, LF, CR in *;
  cbn [existsb fst snd] in *;
  rewrite ?byte_eqb_n in *;
  cbn [b2n Byte.to_N] in *.

(* evaluate byte tests on concrete bytes (leaves tests on variables alone) *)
Ltac beq_compute :=
  repeat match goal with
  | |- context [byte_eqb ?a ?b] =>
      let v := eval vm_compute in (byte_eqb a b) in
      match v with true => idtac | false => idtac end;
      change (byte_eqb a b) with v
  | |- context [is_ctrl ?a] =>
      let v := eval vm_compute in (is_ctrl a) in
      match v with true => idtac | false => idtac end;
      change (is_ctrl a) with v
  end.

(* ---- byte classes ----------------------------------------------------------------------- *)
Lemma plain_basic b : plain b = true -> in_class BASIC_UNESCAPED b = true.
Proof. pose proof (b2n_lt b). byten. lia. Qed.
Lemma plain_mlb b : plain b = true -> in_class MLB_UNESCAPED b = true.
Proof. pose proof (b2n_lt b). byten. lia. Qed.
Lemma plain_high b : (128 <= b2n b)%N -> plain b = true.
Proof. pose proof (b2n_lt b). byten. lia. Qed.
Lemma not_plain_ascii b : plain b = false -> (b2n b <= 127)%N.
Proof. pose proof (b2n_lt b). byten. lia. Qed.
Lemma plain_not_quote b : plain b = true -> byte_eqb b x22 = false.
Proof. byten. lia. Qed.

(* the first byte of every escape, the quotation mark and LF stop an unescaped chunk *)
Lemma basic_stop b : byte_eqb b x22 = true \/ byte_eqb b x5c = true \/ byte_eqb b x0a = true ->
  in_class BASIC_UNESCAPED b = false.
Proof. byten. lia. Qed.
Lemma mlb_stop b : byte_eqb b x22 = true \/ byte_eqb b x5c = true \/ byte_eqb b x0a = true ->
  in_class MLB_UNESCAPED b = false.
Proof. byten. lia. Qed.

(* literal strings: everything but control characters (tab allowed) and the apostrophe *)
Lemma literal_char_ok b : (is_ctrl b = false \/ byte_eqb b x09 = true) -> byte_eqb b x27 = false ->
  in_class LITERAL_CHAR b = true.
Proof. pose proof (b2n_lt b). byten. lia. Qed.
Lemma mll_char_ok b : (is_ctrl b = false \/ byte_eqb b x09 = true) -> byte_eqb b x27 = false ->
  in_class MLL_CHAR b = true.
Proof. pose proof (b2n_lt b). byten. lia. Qed.
Lemma literal_char_apos : in_class LITERAL_CHAR x27 = false.
Proof. reflexivity. Qed.
Lemma mll_char_apos : in_class MLL_CHAR x27 = false.
Proof. reflexivity. Qed.
Lemma mll_char_lf : in_class MLL_CHAR x0a = false.
Proof. reflexivity. Qed.

Lemma unquoted_class b : is_unquoted_byte b = in_class UNQUOTED_CHAR b.
Proof. byten. lia. Qed.
Lemma unquoted_not_quote b : is_unquoted_byte b = true ->
  byte_eqb b x22 = false /\ byte_eqb b x27 = false.
Proof. byten. lia. Qed.

(* ---- span_while --------------------------------------------------------------------------- *)
Definition stops (f : byte -> bool) (r : bytes) : Prop :=
  match r with [] => True | b :: _ => f b = false end.

Lemma span_while_exact f a r : forallb f a = true -> stops f r -> span_while f (a ++ r) = (a, r).
Proof.
  intros Ha Hr. destruct r as [|b r]; [rewrite app_nil_r; apply span_while_all_true, Ha|].
  apply span_while_app_stop; [exact Ha|exact Hr].
Qed.

Lemma span_while_split f s : exists a r, s = a ++ r /\ forallb f a = true /\ stops f r.
Proof.
  exists (fst (span_while f s)), (snd (span_while f s)).
  split; [symmetry; apply span_while_app|split; [apply span_while_all|]].
  pose proof (span_while_stop f s) as H. unfold stops. destruct (snd (span_while f s)); exact H.
Qed.

(* ---- inputs -------------------------------------------------------------------------------- *)
Lemma advance_app a r p d : advance (length a) (mkIn (a ++ r) p d) = after a r p d.
Proof. unfold advance, after. cbn [rest pos depth]. rewrite skipn_app_len. reflexivity. Qed.

Lemma after_nil r p d : after [] r p d = mkIn r p d.
Proof. unfold after. cbn [length]. f_equal. lia. Qed.

Lemma after_after t1 t2 r p d : after t2 r (p + N.of_nat (length t1)) d = after (t1 ++ t2) r p d.
Proof. unfold after. f_equal. rewrite app_length. lia. Qed.

Lemma mkIn_eq r r' p p' d : r = r' -> p = p' -> mkIn r p d = mkIn r' p' d.
Proof. intros; subst; reflexivity. Qed.

(* prove an equality between two inputs that differ only in how the position is written *)
Ltac inp :=
  unfold after; apply mkIn_eq;
  [ repeat (rewrite <- ?app_assoc; cbn [app]); try reflexivity
  | repeat rewrite app_length; cbn [length]; lia ].

Lemma ok_inp {A} (a a' : A) i i' : a = a' -> i = i' -> Ok a i = Ok a' i'.
Proof. intros; subst; reflexivity. Qed.

(* ---- primitives -------------------------------------------------------------------------------- *)
Lemma any_cons b r p d : any (mkIn (b :: r) p d) = Ok b (mkIn r (p + 1)%N d).
Proof. reflexivity. Qed.
Lemma any_nil p d : any (mkIn [] p d) = Bt err0 (mkIn [] p d).
Proof. reflexivity. Qed.
Lemma one_of_cons f b r p d :
  one_of f (mkIn (b :: r) p d) = if f b then Ok b (mkIn r (p + 1)%N d) else Bt err0 (mkIn (b :: r) p d).
Proof. reflexivity. Qed.
Lemma one_of_yes f b r p d : f b = true -> one_of f (mkIn (b :: r) p d) = Ok b (mkIn r (p + 1)%N d).
Proof. intro H. rewrite one_of_cons, H. reflexivity. Qed.
Lemma one_of_no f r p d : stops f r -> one_of f (mkIn r p d) = Bt err0 (mkIn r p d).
Proof. destruct r as [|b r]; [reflexivity|]. simpl. intro H. rewrite one_of_cons, H. reflexivity. Qed.
Lemma byte_yes x r p d : byte_ x (mkIn (x :: r) p d) = Ok x (mkIn r (p + 1)%N d).
Proof. unfold byte_. apply one_of_yes. apply byte_eqb_refl. Qed.
Lemma byte_no x r p d : stops (byte_eqb x) r -> byte_ x (mkIn r p d) = Bt err0 (mkIn r p d).
Proof. apply one_of_no. Qed.

Lemma lit_yes l r p d : lit l (mkIn (l ++ r) p d) = Ok l (after l r p d).
Proof.
  unfold lit. cbn [rest]. assert (H : strip_prefix l (l ++ r) = Some r) by (apply strip_prefix_spec; reflexivity).
  rewrite H. rewrite advance_app. reflexivity.
Qed.
Lemma lit_no l r p d : strip_prefix l r = None -> lit l (mkIn r p d) = Bt err0 (mkIn r p d).
Proof. intro H. unfold lit. cbn [rest]. rewrite H. reflexivity. Qed.

Lemma take_while_yes m f a r p d : forallb f a = true -> stops f r -> m <= length a ->
  take_while_mn m None f (mkIn (a ++ r) p d) = Ok a (after a r p d).
Proof.
  intros Ha Hr Hm. unfold take_while_mn. cbn [rest]. rewrite (span_while_exact f a r Ha Hr). cbn [fst].
  destruct (Nat.ltb (length a) m) eqn:E; [apply Nat.ltb_lt in E; lia|].
  rewrite advance_app. reflexivity.
Qed.
Lemma take_while1_no f r p d : stops f r -> take_while1 f (mkIn r p d) = Bt err0 (mkIn r p d).
Proof.
  intro Hr. unfold take_while1, take_while_mn. cbn [rest].
  pose proof (span_while_exact f [] r eq_refl Hr) as H. cbn [app] in H. rewrite H. reflexivity.
Qed.
Lemma take_while0_none f r p d : stops f r -> take_while0 f (mkIn r p d) = Ok [] (mkIn r p d).
Proof.
  intro Hr. unfold take_while0. pose proof (take_while_yes 0 f [] r p d eq_refl Hr (Nat.le_refl _)) as H.
  cbn [app] in H. rewrite H, after_nil. reflexivity.
Qed.

(* trivia.rs ws on an input that does not start with a blank *)
Lemma ws_none r p d : stops (in_class WSCHAR) r -> ws (mkIn r p d) = Ok [] (mkIn r p d).
Proof. intro H. unfold ws, unchecked_utf8. rewrite take_while0_none by exact H. reflexivity. Qed.

(* the progress checks of the loops *)
Lemma eqb_lt n m : n < m -> Nat.eqb n m = false.
Proof. intro H. apply Nat.eqb_neq. lia. Qed.

(* ---- one turn of a loop whose body has read the non-empty token `t` ------------------------------ *)
Lemma progress_app (t X : bytes) : t <> [] -> Nat.eqb (length X) (length (t ++ X)) = false.
Proof. intro H. apply eqb_lt. rewrite app_length. destruct t; [congruence|cbn [length]; lia]. Qed.

Lemma fuel_step {A} (t X : list A) f : t <> [] -> length (t ++ X) < S f -> length X < f.
Proof. intros H Hf. rewrite app_length in Hf. destruct t; [congruence|cbn [length] in Hf; lia]. Qed.

Lemma repeat0_f_step {A} f (P : parser A) acc t X p d a : t <> [] ->
  P (mkIn (t ++ X) p d) = Ok a (after t X p d) ->
  repeat0_f (S f) P acc (mkIn (t ++ X) p d) = repeat0_f f P (a :: acc) (after t X p d).
Proof. intros Ht H. cbn [repeat0_f]. rewrite H. unfold after. cbn [rest]. rewrite progress_app by exact Ht. reflexivity. Qed.

Lemma chunks_f_step f (P : parser bytes) acc t X p d c : t <> [] ->
  P (mkIn (t ++ X) p d) = Ok c (after t X p d) ->
  chunks_f (S f) P acc (mkIn (t ++ X) p d) = chunks_f f P (acc ++ c) (after t X p d).
Proof. intros Ht H. cbn [chunks_f]. rewrite H. unfold after. cbn [rest]. rewrite progress_app by exact Ht. reflexivity. Qed.
