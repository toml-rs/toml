(* Proofs/MacroSem.v — C19, the semantic half: on every VALID document the helper functions of
   macros.rs (`insert_toml`, `insert_table_toml`, `push_toml`, all through `traverse`) build, statement
   by statement, exactly the table the TOML definition rules (Spec/Defs.v, via MacroSpec.ref_step)
   give.  No tokens here: `helper_step` is what one expansion step of `toml_internal!(@toplevel ...)`
   does to the root value once keys and value are known (Proofs/MacroDoc.v connects it to the tokens). *)
From TV Require Import Base.Prelude Model.Macro Spec.Defs Spec.MacroSpec.

(* ---- association lists against ordered trees ---- *)
Lemma mget_erase : forall (t : stree mval) k, mget k (erase_tree t) = optmap erase_node (sget t k).
Proof.
  unfold erase_tree.
  induction t as [|[k' n] t IH]; intro k; cbn [sget List.map fst snd mget]; [reflexivity|].
  destruct (bytes_eqb k' k); [reflexivity|apply IH].
Qed.

Lemma erase_tree_app : forall (a b : stree mval), erase_tree (a ++ b) = erase_tree a ++ erase_tree b.
Proof. intros; unfold erase_tree; apply map_app. Qed.

Lemma mput_absent : forall (t : stree mval) k n, sget t k = None ->
  mput k (erase_node n) (erase_tree t) = erase_tree (spush t k n).
Proof.
  unfold erase_tree, spush.
  induction t as [|[k' n'] t IH]; intros k n H; cbn [sget List.map fst snd mput app] in *; [reflexivity|].
  destruct (bytes_eqb k' k); [discriminate|]. f_equal. apply IH; assumption.
Qed.

Lemma mput_present : forall (t : stree mval) k n n0, sget t k = Some n0 ->
  mput k (erase_node n) (erase_tree t) = erase_tree (sset t k n).
Proof.
  unfold erase_tree.
  induction t as [|[k' n'] t IH]; intros k n n0 H; cbn [sget sset List.map fst snd mput] in *; [discriminate|].
  destruct (bytes_eqb k' k); [reflexivity|]. cbn [List.map fst snd]. f_equal. eapply IH; eassumption.
Qed.

Lemma erase_tab : forall kd (c : stree mval), erase_node (NTab kd c) = MTab (erase_tree c).
Proof. reflexivity. Qed.
Lemma erase_aot : forall (es : list (stree mval)),
  erase_node (NAot es) = MArr (List.map (fun e => MTab (erase_tree e)) es).
Proof. reflexivity. Qed.

Lemma mput_tab_present : forall (t : stree mval) k kd c n0, sget t k = Some n0 ->
  mput k (MTab (erase_tree c)) (erase_tree t) = erase_tree (sset t k (NTab kd c)).
Proof. intros t k kd c n0 H. exact (mput_present t k (NTab kd c) n0 H). Qed.
Lemma mput_tab_absent : forall (t : stree mval) k kd c, sget t k = None ->
  mput k (MTab (erase_tree c)) (erase_tree t) = erase_tree (spush t k (NTab kd c)).
Proof. intros t k kd c H. exact (mput_absent t k (NTab kd c) H). Qed.
Lemma mput_aot_present : forall (t : stree mval) k es n0, sget t k = Some n0 ->
  mput k (MArr (List.map (fun e => MTab (erase_tree e)) es)) (erase_tree t) = erase_tree (sset t k (NAot es)).
Proof. intros t k es n0 H. exact (mput_present t k (NAot es) n0 H). Qed.
Lemma mput_aot_absent : forall (t : stree mval) k es, sget t k = None ->
  mput k (MArr (List.map (fun e => MTab (erase_tree e)) es)) (erase_tree t) = erase_tree (spush t k (NAot es)).
Proof. intros t k es H. exact (mput_absent t k (NAot es) H). Qed.
Lemma mput_val_absent : forall (t : stree mval) k v, sget t k = None ->
  mput k v (erase_tree t) = erase_tree (spush t k (NVal v)).
Proof. intros t k v H. exact (mput_absent t k (NVal v) H). Qed.

(* ---- slot_update, one key at a time ---- *)
Lemma slot_update_tab : forall k p f l,
  slot_update (k :: p) f (MTab l) =
  match slot_update p f (match mget k l with Some c => c | None => MTab [] end) with
  | Some c' => Some (MTab (mput k c' l))
  | None => None
  end.
Proof. reflexivity. Qed.

Lemma slot_update_arr_snoc : forall k p f before l,
  slot_update (k :: p) f (MArr (before ++ [MTab l])) =
  match slot_update (k :: p) f (MTab l) with
  | Some v' => Some (MArr (before ++ [v']))
  | None => None
  end.
Proof.
  intros. cbn [slot_update]. rewrite rev_app_distr. cbn [rev app]. rewrite rev_involutive. reflexivity.
Qed.

Lemma unsnoc_spec : forall {A} (p pre : list A) k, unsnoc p = Some (pre, k) -> p = pre ++ [k].
Proof.
  intros A p pre k H. unfold unsnoc in H. destruct (rev p) as [|l r] eqn:E; [discriminate|].
  injection H as H1 H2; subst. rewrite <- (rev_involutive p), E. reflexivity.
Qed.

Lemma rev_cons_snoc : forall {A} (l : list A) x r, rev l = x :: r -> l = rev r ++ [x].
Proof. intros A l x r H. rewrite <- (rev_involutive l), H. reflexivity. Qed.

(* ---- at_path is traverse ---- *)
(* `q` is what remains of the macro's path below the table that at_path addresses; it is never empty
   (a key always follows), which is what makes "an array stands for its last element" agree *)
Lemma at_path_slot : forall p (g : stree mval -> res (stree mval)) q f,
  q <> [] ->
  (forall c c', g c = ROk c' -> slot_update q f (MTab (erase_tree c)) = Some (MTab (erase_tree c'))) ->
  forall t t', at_path p g t = ROk t' ->
  slot_update (p ++ q) f (MTab (erase_tree t)) = Some (MTab (erase_tree t')).
Proof.
  induction p as [|k p IH]; intros g q f Hq Hg t t' H.
  - simpl in *. apply Hg; assumption.
  - cbn [at_path] in H. cbn [app]. rewrite slot_update_tab, mget_erase.
    destruct (sget t k) as [[v|kd c|es]|] eqn:E; cbn [optmap].
    + discriminate.
    + rewrite erase_tab.
      destruct (at_path p g c) as [c'| |] eqn:E2; cbn [rbind] in H; try discriminate.
      injection H as <-. rewrite (IH g q f Hq Hg c c' E2).
      rewrite (mput_tab_present t k kd c' _ E). reflexivity.
    + destruct (rev es) as [|e before] eqn:E3; [discriminate|].
      destruct (at_path p g e) as [e'| |] eqn:E2; cbn [rbind] in H; try discriminate.
      injection H as <-. apply rev_cons_snoc in E3. subst es.
      rewrite erase_aot, map_app. cbn [List.map].
      destruct (p ++ q) as [|k2 pq] eqn:Epq.
      { apply app_eq_nil in Epq as [_ Hq']. contradiction. }
      rewrite slot_update_arr_snoc. rewrite <- Epq. rewrite (IH g q f Hq Hg e e' E2).
      rewrite <- (mput_aot_present t k (rev before ++ [e']) _ E). rewrite map_app. reflexivity.
    + destruct (at_path p g []) as [c'| |] eqn:E2; cbn [rbind] in H; try discriminate.
      injection H as <-. change (MTab []) with (MTab (erase_tree [])). rewrite (IH g q f Hq Hg [] c' E2).
      rewrite (mput_tab_absent t k KSuper c' E). reflexivity.
Qed.

(* ---- the three operations at the end of the path ---- *)
Lemma insert_kv_cons2 : forall {V} strict k k2 p2 (v : V) t,
  insert_kv strict (k :: k2 :: p2) v t =
  match sget t k with
  | None => c <~ insert_kv strict (k2 :: p2) v [] ;; ROk (spush t k (NTab KDotted c))
  | Some (NTab KDotted c) => c' <~ insert_kv strict (k2 :: p2) v c ;; ROk (sset t k (NTab KDotted c'))
  | Some (NTab KSuper c) =>
    if strict then RUndecided
    else match p2 with
         | [] => RInvalid
         | _ => c' <~ insert_kv strict (k2 :: p2) v c ;; ROk (sset t k (NTab KSuper c'))
         end
  | Some _ => RInvalid
  end.
Proof. reflexivity. Qed.

Lemma insert_kv_slot : forall p (v : mval) c c', insert_kv true p v c = ROk c' ->
  slot_update p (fun _ => v) (MTab (erase_tree c)) = Some (MTab (erase_tree c')).
Proof.
  induction p as [|k p IH]; intros v c c' H; [discriminate|].
  rewrite slot_update_tab, mget_erase.
  destruct p as [|k2 p2].
  - cbn [insert_kv] in H. destruct (sget c k) eqn:E; [discriminate|]. injection H as <-.
    cbn [optmap slot_update]. rewrite (mput_val_absent c k v E). reflexivity.
  - rewrite insert_kv_cons2 in H.
    destruct (sget c k) as [[v0|[| |] c0|es]|] eqn:E; cbn [optmap]; try discriminate.
    + destruct (insert_kv true (k2 :: p2) v c0) as [c1| |] eqn:E2; cbn [rbind] in H; try discriminate.
      injection H as <-. rewrite erase_tab, (IH v c0 c1 E2).
      rewrite (mput_tab_present c k KDotted c1 _ E). reflexivity.
    + destruct (insert_kv true (k2 :: p2) v []) as [c1| |] eqn:E2; cbn [rbind] in H; try discriminate.
      injection H as <-. change (MTab []) with (MTab (erase_tree [])). rewrite (IH v [] c1 E2).
      rewrite (mput_tab_absent c k KDotted c1 E). reflexivity.
Qed.

Lemma def_table_slot : forall k (c c' : stree mval), def_table_here k c = ROk c' ->
  slot_update [k] (fun t => if is_table t then t else MTab []) (MTab (erase_tree c)) = Some (MTab (erase_tree c')).
Proof.
  intros k c c' H. unfold def_table_here in H. rewrite slot_update_tab, mget_erase.
  destruct (sget c k) as [[v0|[| |] c0|es]|] eqn:E; cbn [optmap]; try discriminate; injection H as <-.
  - cbn [slot_update]. rewrite erase_tab. cbn [is_table].
    rewrite (mput_tab_present c k KHeader c0 _ E). reflexivity.
  - cbn [slot_update is_table]. change (MTab []) with (MTab (erase_tree [])).
    rewrite (mput_tab_absent c k KHeader [] E). reflexivity.
Qed.

Lemma def_elem_slot : forall k (c c' : stree mval), def_elem k c = ROk c' ->
  slot_update [k] (fun t => MArr ((match t with MArr l => l | _ => [] end) ++ [MTab []])) (MTab (erase_tree c))
  = Some (MTab (erase_tree c')).
Proof.
  intros k c c' H. unfold def_elem in H. rewrite slot_update_tab, mget_erase.
  destruct (sget c k) as [[v0|kd c0|es]|] eqn:E; cbn [optmap]; try discriminate; injection H as <-.
  - cbn [slot_update]. rewrite erase_aot.
    rewrite <- (mput_aot_present c k (es ++ [[]]) _ E). rewrite map_app. reflexivity.
  - cbn [slot_update app].
    rewrite <- (mput_aot_absent c k [[]] E). reflexivity.
Qed.

(* ---- one statement ---- *)
(* what one step of @toplevel does to (root, [$($path)*]) once the key strings and the value are known *)
Definition helper_step (root : mval) (cur : list bytes) (st : stmt mval) : option (mval * list bytes) :=
  match st with
  | SKeyVal p v => optmap (fun r => (r, cur)) (insert_toml root (cur ++ p) v)
  | SHeader p => optmap (fun r => (r, p)) (insert_table_toml root p)
  | SArrHeader p => optmap (fun r => (r, p)) (push_toml root p)
  end.

Lemma insert_kv_nonempty : forall strict p (v : mval) c c', insert_kv strict p v c = ROk c' -> p <> [].
Proof. intros strict [|k p] v c c' H; [discriminate|discriminate]. Qed.

(* a successful at_path has applied its operation to some table *)
Lemma at_path_reaches : forall p (g : stree mval -> res (stree mval)) t t',
  at_path p g t = ROk t' -> exists c c', g c = ROk c'.
Proof.
  induction p as [|k p IH]; intros g t t' H; [eauto|].
  cbn [at_path] in H. destruct (sget t k) as [[v0|kd c|es]|]; [discriminate| | |].
  - destruct (at_path p g c) eqn:E; cbn [rbind] in H; try discriminate. eapply IH; eassumption.
  - destruct (rev es) as [|e0 before]; [discriminate|].
    destruct (at_path p g e0) eqn:E; cbn [rbind] in H; try discriminate. eapply IH; eassumption.
  - destruct (at_path p g []) eqn:E; cbn [rbind] in H; try discriminate. eapply IH; eassumption.
Qed.

Theorem helper_step_ref : forall t cur st t' cur',
  ref_step (t, cur) st = ROk (t', cur') ->
  helper_step (MTab (erase_tree t)) cur st = Some (MTab (erase_tree t'), cur').
Proof.
  intros t cur [p|p|p v] t' cur' H; cbn [ref_step helper_step] in *.
  - destruct (unsnoc p) as [[pre k]|] eqn:U; [|discriminate]. apply unsnoc_spec in U. subst p.
    destruct (at_path pre (def_table_here k) t) as [t1| |] eqn:E; cbn [rbind] in H; try discriminate.
    injection H as <- <-. unfold insert_table_toml.
    rewrite (at_path_slot pre (def_table_here k) [k] _ ltac:(discriminate) (def_table_slot k) t t1 E). reflexivity.
  - destruct (unsnoc p) as [[pre k]|] eqn:U; [|discriminate]. apply unsnoc_spec in U. subst p.
    destruct (at_path pre (def_elem k) t) as [t1| |] eqn:E; cbn [rbind] in H; try discriminate.
    injection H as <- <-. unfold push_toml.
    rewrite (at_path_slot pre (def_elem k) [k] _ ltac:(discriminate) (def_elem_slot k) t t1 E). reflexivity.
  - destruct (at_path cur (insert_kv true p v) t) as [t1| |] eqn:E; cbn [rbind] in H; try discriminate.
    injection H as <- <-. unfold insert_toml.
    destruct (at_path_reaches cur _ t t1 E) as [c [c' Hc]]. pose proof (insert_kv_nonempty true p v c c' Hc) as Hp.
    rewrite (at_path_slot cur (insert_kv true p v) p _ Hp (insert_kv_slot p v) t t1 E). reflexivity.
Qed.

(* ---- whole documents, values given by their meaning ---- *)
Fixpoint helper_fold (root : mval) (cur : list bytes) (l : list astmt) : option mval :=
  match l with
  | [] => Some root
  | st :: tl =>
    match stmt_meaning st with
    | Some m => match helper_step root cur m with
                | Some (root', cur') => helper_fold root' cur' tl
                | None => None
                end
    | None => None
    end
  end.

Lemma helper_fold_ref : forall l t cur s',
  ref_fold (t, cur) l = Some s' ->
  helper_fold (MTab (erase_tree t)) cur l = Some (MTab (erase_tree (fst s'))).
Proof.
  induction l as [|st tl IH]; intros t cur s' H; cbn [ref_fold helper_fold] in *.
  - injection H as <-. reflexivity.
  - destruct (stmt_meaning st) as [m|]; [|discriminate].
    destruct (ref_step (t, cur) m) as [[t1 cur1]| |] eqn:E; try discriminate.
    rewrite (helper_step_ref t cur m t1 cur1 E). apply IH; assumption.
Qed.

(* the helper functions follow the definition rules on every valid document *)
Theorem helpers_follow_definition_rules : forall l t,
  eval l = Some t -> helper_fold (MTab []) [] l = Some t.
Proof.
  intros l t H. unfold eval in H.
  destruct (ref_fold sstate0 l) as [[t1 c1]|] eqn:E; [|discriminate]. injection H as <-.
  exact (helper_fold_ref l [] [] (t1, c1) E).
Qed.

(* inline tables: the @table state inserts pair after pair into a fresh table *)
Fixpoint inline_helper_fold (root : mval) (pairs : list (list bytes * mval)) : option mval :=
  match pairs with
  | [] => Some root
  | (p, v) :: tl => match insert_toml root p v with
                    | Some root' => inline_helper_fold root' tl
                    | None => None
                    end
  end.

Lemma inline_helper_fold_ref : forall pairs (t t' : stree mval),
  inline_fold t pairs = ROk t' ->
  inline_helper_fold (MTab (erase_tree t)) pairs = Some (MTab (erase_tree t')).
Proof.
  induction pairs as [|[p v] tl IH]; intros t t' H; cbn [inline_fold inline_helper_fold] in *.
  - injection H as <-. reflexivity.
  - destruct (insert_kv true p v t) as [t1| |] eqn:E; cbn [rbind] in H; try discriminate.
    unfold insert_toml. rewrite (insert_kv_slot p v t t1 E). apply IH; assumption.
Qed.
