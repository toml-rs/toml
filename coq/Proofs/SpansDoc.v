(* Proofs/SpansDoc.v — C14: document.rs / table.rs.  Every line parser hands on a state whose spans
   lie left of the cursor; hence every span of a parsed document lies in [0, length source]. *)
From TV Require Import Base.Prelude Base.Winnow.
From TV Require Import Model.Trivia Model.Document.
From TV Require Import Proofs.NoPanicBase Proofs.NoPanicLex Proofs.NoPanicValue Proofs.NoPanicDoc.
From TV Require Import Proofs.SpansDefs Proofs.SpansBase Proofs.SpansLex Proofs.SpansValue Proofs.SpansState.
From TV Require Import Proofs.DocumentOps.
Require Import Lia ZifyBool ZifyN ZifyNat.

(* ---- parse_keyval ------------------------------------------------------------------------------------------- *)
Lemma parse_keyval_win : winP pair_in parse_keyval.
Proof.
  rewrite parse_keyval_of. apply keyval_of_win; [np|np|apply value_win|apply winP_context, line_trailing_win].
Qed.

(* ---- parsers indexed by a parse state ------------------------------------------------------------------------- *)
(* the state handed on has its spans left of the cursor *)
Definition stP (q : pstate -> parser pstate) : Prop :=
  forall st i st' i', q st i = Ok st' i' -> st_in (pos i) st -> st_in (pos i') st'.


Lemma keyval_stP : stP keyval.
Proof.
  intros st i st' i' E Hst. unfold keyval in E. apply try_map_inv in E as ([path [k v]] & E & G).
  apply lift_state_ok in G. pose proof (parse_keyval_win (pos i) (pos i') _ _ _ E (N.le_refl _) (N.le_refl _)) as (mid & H1 & H2 & H3 & L & U).
  cbn [fst snd] in *. eapply on_keyval_sp_in; eauto.
Qed.

Lemma header_stP ia : stP (header ia).
Proof.
  intros st i st' i' E Hst. rewrite header_eq in E. apply try_map_inv in E as ([[h sp] t] & E & G).
  apply lift_state_ok in G. unfold header_syntax in E. cbv zeta in E. unfold pair_ in E. binds E.
  apply ret_inv in E as [X ->]. inversion X; subst a a0. clear X.
  apply with_span_inv in E0 as (x' & E0 & S). injection S as <- ->. apply context_inv, cut_err_inv in E1.
  assert (M0 : (pos i <= pos j)%N) by (eapply mono_le; [|exact E0]; destruct ia; np).
  pos_le E1.
  assert (Hh : keys_in (pos i) (pos j) h = true).
  { eapply (winP_delimited (fun lo hi l => keys_in lo hi l = true)); [| | | |exact E0|apply N.le_refl|apply N.le_refl];
      [destruct ia; np|np|destruct ia; np|apply winP_cut_err, key_win]. }
  eapply on_header_in; [exact Hst|exact M0|exact M|exact Hh| |exact G].
  eapply line_trailing_win; [exact E1|lia|lia].
Qed.

Lemma on_ws_stP {A} (p : parser A) : mono p -> stP (fun st => pmap (on_ws st) (span_ p)).
Proof.
  intros Mp st i st' i' E Hst. apply pmap_inv in E as (sp & E & ->). apply span_inv in E as (x & E & ->).
  apply st_in_on_ws; [exact Hst|eapply mono_le; eauto].
Qed.
Lemma parse_ws_stP : stP parse_ws. Proof. apply (on_ws_stP ws). np. Qed.
Lemma parse_newline_stP : stP parse_newline. Proof. apply (on_ws_stP newline). np. Qed.
Lemma parse_comment_stP : stP parse_comment. Proof. apply (on_ws_stP (comment ;;; context line_ending)). np. Qed.

Lemma document_in i st i' : document i = Ok st i' -> st_in (pos i') st.
Proof.
  apply (document_stI (fun j st => st_in (pos j) st) parse_ws_stP parse_newline_stP parse_comment_stP keyval_stP header_stP).
  intros o j _. eapply st_in_mono; [|apply st_in_new]. lia.
Qed.

(* ---- parse_document ------------------------------------------------------------------------------------------- *)
Lemma parse_all_done_eof {A} (p : parser A) s a :
  parse_all p s = Done a -> exists i, p (new_input s) = Ok a i /\ rest i = [].
Proof.
  unfold parse_all, bind. destruct (p (new_input s)) as [x i|? ?|? ?|?]; try discriminate.
  unfold eof. destruct (rest i) eqn:R; [|discriminate]. cbn [ret]. intro H; inversion H; subst. eauto.
Qed.

Lemma document_mono : mono document.
Proof.
  rewrite document_unfold. apply monoC_bind; [np|]. intros _. apply monoC_bind; [apply parse_ws_mono|]. intro st.
  apply monoC_bind; [apply doc_loop_p_mono|]. intro st'. np.
Qed.

Lemma end_pos {A} (p : parser A) s a i : mono p -> p (new_input s) = Ok a i -> rest i = [] -> pos i = N.of_nat (length s).
Proof.
  intros M E R. apply M, ext_pos in E. rewrite R in E. cbn [new_input pos rest length] in E. lia.
Qed.

Definition doc_in (hi : N) (d : doc) : bool := tbl_in 0 hi (doc_root d) && raw_in 0 hi (doc_trailing d).

Lemma parse_document_in s d : parse_document s = POk d -> doc_in (N.of_nat (length s)) d = true.
Proof.
  intro H. apply parse_document_run in H as (fin & i & st' & E & R & F & ->).
  pose proof (end_pos _ _ _ _ document_mono E R) as Pe. apply document_in in E. rewrite Pe in E.
  destruct (finalize_in _ _ _ E F) as (Hr & Htr & _ & _). unfold doc_in; cbn [doc_root doc_trailing]. rewrite Hr. cbn [andb].
  rewrite Htr. destruct E as (a & b & _ & _ & _ & _ & _ & Ht & _).
  destruct (st_trailing fin) as [sp|]; [apply raw_with_span_in, Ht|reflexivity].
Qed.

(* a fact about the parse of a concrete text, by one evaluation of the parser *)
Lemma parsed_with s (Q : doc -> Prop) :
  match parse_document s with POk d => Q d | _ => False end -> exists d, parse_document s = POk d /\ Q d.
Proof. destruct (parse_document s) as [d| |]; [eauto|contradiction|contradiction]. Qed.

Lemma doc_in_all_spans hi d : doc_in hi d = forallb (sp_in 0 hi) (all_spans d).
Proof.
  unfold doc_in, all_spans, raw_in, raw_spans. rewrite forallb_app, (proj2 (proj2 (tree_in_spans 0 hi))), osp_in_spans. reflexivity.
Qed.

(* C14, range: every span stored anywhere in a parsed document is a pair (a, b), a <= b <= length source *)
Theorem spans_in_range s d :
  parse_document s = POk d ->
  Forall (fun sp => (fst sp <= snd sp)%N /\ (snd sp <= N.of_nat (length s))%N) (all_spans d).
Proof.
  intro H. apply parse_document_in in H. rewrite doc_in_all_spans in H. apply forallb_Forall in H.
  eapply Forall_impl; [|exact H]. intros sp X. unfold sp_in in X. lia.
Qed.
