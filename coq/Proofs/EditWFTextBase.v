(* Proofs/EditWFTextBase.v — property C08, text half: the edit operations preserve Spec/WF.v.
   This file: small facts about trivia slots, `all_P`, the association-list functions, the
   visibility quantities (has_line / shown / prints_header), and the lifting of a node-level
   preservation statement along the path of an operation (`at_path_wf`). *)
From TV Require Import Base.Prelude Spec.Lex Spec.Syntax.
From TV Require Import Model.Tree Spec.WF.
From TV Require Import Model.Edit.
From TV Require Import Proofs.KvFacts.
From TV Require Import Proofs.ModelFacts.
Require Import Lia.

(** * 1. Trivia written by the API is legal in every slot *)

Lemma ws_space : ws_tok [x20]. Proof. reflexivity. Qed.
Lemma wscn_space : wscn_tok [x20]. Proof. apply wscn_ws; [reflexivity|constructor]. Qed.

Lemma slot_ok_nil sl : slot_ok sl [].
Proof.
  destruct sl; simpl.
  - exact ws_nil.
  - exists [], []. split; [reflexivity|split; [exact ws_nil|left; reflexivity]].
  - apply ln_last. exact ws_nil.
  - constructor.
  - apply dt_last. exists [], []. split; [reflexivity|split; [exact ws_nil|left; reflexivity]].
Qed.

Lemma raw_ok_empty sl : raw_ok sl REmpty.
Proof. simpl. apply slot_ok_nil. Qed.
Lemma raw_ok_space_ws : raw_ok SWs (RExplicit [x20]).
Proof. simpl. exact ws_space. Qed.
Lemma raw_ok_space_wscn : raw_ok SWscn (RExplicit [x20]).
Proof. simpl. exact wscn_space. Qed.

Lemma decor_ok_default p s : decor_ok p s decor_default.
Proof. split; exact I. Qed.
Lemma vdecor_ok_default c : vdecor_ok c decor_default.
Proof. destruct c; apply decor_ok_default. Qed.

(** * 2. all_P and the association lists *)

Lemma kv_upd_keys k F m m' : kv_upd k F m = Some m' -> kkeys m' = kkeys m.
Proof.
  revert m'. induction m as [|[k1 i1] m IH]; intros m' H; simpl in H; [discriminate|].
  destruct (bytes_eqb (k_key k1) k).
  - destruct (F i1); simpl in H; [|discriminate]. injection H as <-. reflexivity.
  - destruct (kv_upd k F m) as [m1|]; simpl in H; [|discriminate]. injection H as <-.
    unfold kkeys in *. simpl. rewrite (IH m1 eq_refl). reflexivity.
Qed.

Lemma all_P_kv_upd (Q : key * item -> Prop) k F m m' :
  kv_upd k F m = Some m' -> all_P Q m ->
  (forall k' i i', kv_get m k = Some (k', i) -> F i = Some i' -> Q (k', i) -> Q (k', i')) ->
  all_P Q m'.
Proof.
  revert m'. induction m as [|[k1 i1] m IH]; intros m' H Ha Hq; simpl in H, Hq; [discriminate|].
  destruct Ha as [H1 Hm]. destruct (bytes_eqb (k_key k1) k).
  - destruct (F i1) as [i1'|] eqn:Fi; simpl in H; [|discriminate]. injection H as <-.
    split; [|exact Hm]. eapply Hq; eauto.
  - destruct (kv_upd k F m) as [m1|]; simpl in H; [|discriminate]. injection H as <-.
    split; [exact H1|]. apply (IH m1 eq_refl Hm). exact Hq.
Qed.

(* existsb over the entries, one item replaced: monotone up to an escape *)
Lemma existsb_kv_upd (g g' : key * item -> bool) (X : Prop) k F m m' :
  kv_upd k F m = Some m' -> existsb g m = true ->
  (forall kv, g kv = true -> g' kv = true) ->
  (forall k' i i', In (k', i) m -> In (k', i') m' -> F i = Some i' -> g (k', i) = true -> g' (k', i') = true \/ X) ->
  existsb g' m' = true \/ X.
Proof.
  revert m'. induction m as [|[k1 i1] m IH]; intros m' H He Hg Hq; simpl in H, He; [discriminate|].
  destruct (bytes_eqb (k_key k1) k).
  - destruct (F i1) as [i1'|] eqn:Fi; simpl in H; [|discriminate]. injection H as <-. simpl.
    apply orb_true_iff in He as [He|He].
    + destruct (Hq k1 i1 i1' (or_introl eq_refl) (or_introl eq_refl) Fi He) as [Hx|Hx];
        [left; rewrite Hx; reflexivity|right; exact Hx].
    + left. apply orb_true_iff. right. clear -He Hg. induction m as [|y m IHm]; simpl in *; [discriminate|].
      apply orb_true_iff in He as [He|He]; apply orb_true_iff; [left; auto|right; auto].
  - destruct (kv_upd k F m) as [m1|]; simpl in H; [|discriminate]. injection H as <-. simpl.
    apply orb_true_iff in He as [He|He].
    + left. rewrite (Hg _ He). reflexivity.
    + destruct (IH m1 eq_refl He Hg) as [Hx|Hx].
      * intros. eapply Hq; eauto; right; assumption.
      * left. rewrite Hx. apply orb_true_r.
      * right. exact Hx.
Qed.

Lemma existsb_In {A} (g : A -> bool) l x : In x l -> g x = true -> existsb g l = true.
Proof. intros H G. apply existsb_exists. exists x. auto. Qed.

(* nth_upd *)
Lemma all_P_nth_upd {A} (Q : A -> Prop) n F (l l' : list A) :
  nth_upd n F l = Some l' -> all_P Q l ->
  (forall x x', In x l -> F x = Some x' -> Q x -> Q x') -> all_P Q l'.
Proof.
  revert n l'. induction l as [|y l IH]; intros [|n] l' H Ha Hq; simpl in H; try discriminate; destruct Ha as [H1 Hl].
  - destruct (F y) as [y'|] eqn:Fy; simpl in H; [|discriminate]. injection H as <-.
    split; [|exact Hl]. eapply Hq; eauto. left. reflexivity.
  - destruct (nth_upd n F l) as [l1|] eqn:E; simpl in H; [|discriminate]. injection H as <-.
    split; [exact H1|]. apply (IH n l1 E Hl). intros. eapply Hq; eauto. right. assumption.
Qed.
Lemma nth_upd_nonnil {A} n F (l l' : list A) : nth_upd n F l = Some l' -> l' <> [].
Proof.
  destruct l as [|y l]; destruct n; simpl; try discriminate.
  - destruct (F y); simpl; intro H; [injection H as <-|]; discriminate.
  - destruct (nth_upd n F l); simpl; intro H; [injection H as <-|]; discriminate.
Qed.

(* the other list functions *)
Lemma kkeys_set_fmt m k v : kkeys (kv_set_fmt m k v) = kkeys m.
Proof.
  unfold kkeys. induction m as [|[k1 i1] m IH]; simpl; [reflexivity|].
  destruct (bytes_eqb (k_key k1) k); simpl; [reflexivity|]. rewrite IH. reflexivity.
Qed.
Lemma all_P_set_fmt (Q : key * item -> Prop) m k v :
  all_P Q m -> (forall k', k_key k' = k -> Q (key_fmt k', v)) -> all_P Q (kv_set_fmt m k v).
Proof.
  intros Ha Hq. induction m as [|[k1 i1] m IH]; simpl; [exact I|]. destruct Ha as [H1 Hm].
  destruct (bytes_eqb (k_key k1) k) eqn:E; split; auto. apply Hq. apply bytes_eqb_eq. exact E.
Qed.

(* a well-formed table holds no placeholder: remove_placeholder does nothing *)
Lemma kv_purge_noop m k : (forall k' i, In (k', i) m -> i <> INone) -> kv_purge m k = m.
Proof.
  intro H. unfold kv_purge. destruct (kv_get m k) as [[k' i]|] eqn:G; [|reflexivity].
  destruct i; try reflexivity. exfalso. exact (H _ _ (kv_get_In _ _ _ _ G) eq_refl).
Qed.

(** * 3. Items in their slot, visibility, and the lifting along a path *)

(* where an item sits: the root table, an entry of a table section, an element of an array of tables,
   an entry of an inline table (line = it is flattened into the key/value lines of a section), an array element *)
Inductive ctx : Set := KRoot | KEntry | KElem | KPair (line : bool) | KArr.

(* the condition Spec/WF.v puts on a table that is an entry of another table: it has a key/value line of its own
   (a table made of dotted keys) / its [header] is written (a header table), or some header is written below it *)
Definition vis_cond (sub : tbl) : Prop :=
  if t_dotted sub then has_line sub = true \/ prints_header sub = true else shown sub = true \/ prints_header sub = true.

Definition iwf (c : ctx) (it : item) : Prop :=
  match c with
  | KRoot => match it with ITable t => tbl_wf true t | _ => False end
  | KEntry =>
    match it with
    | INone => False
    | IValue _ => pair_wf true it
    | ITable sub => tbl_wf false sub /\ vis_cond sub
    | IAot ts _ => ts <> [] /\ all_P (fun e => t_dotted e = false /\ tbl_wf false e) ts
    end
  | KElem => match it with ITable e => t_dotted e = false /\ tbl_wf false e | _ => False end
  | KPair line => pair_wf line it
  | KArr => match it with IValue e => value_wf CArr e | _ => False end
  end.

Definition entry_ok (kv : key * item) : Prop := key_wf true (fst kv) /\ iwf KEntry (snd kv).

Lemma tbl_wf_eq top items d im dt p sp :
  tbl_wf top (Tbl items d im dt p sp)
  <-> decor_ok SLines (if top then SLines else SLineTrail) d /\ NoDup (kkeys items) /\ all_P entry_ok items.
Proof. reflexivity. Qed.

(* what a sub-table contributes to its parent's has_line / prints_header *)
Definition hl (sub : tbl) : bool := t_dotted sub && has_line sub.
Definition ph (sub : tbl) : bool := (negb (t_dotted sub) && shown sub) || prints_header sub.
Definition gl (kv : key * item) : bool :=
  match snd kv with IValue _ => true | ITable sub => hl sub | _ => false end.
Definition gp (kv : key * item) : bool :=
  match snd kv with
  | ITable sub => ph sub
  | IAot ts _ => match ts with [] => false | _ => true end
  | _ => false
  end.
Lemma has_line_eq items d im dt p sp : has_line (Tbl items d im dt p sp) = existsb gl items.
Proof. reflexivity. Qed.
Lemma prints_header_eq items d im dt p sp : prints_header (Tbl items d im dt p sp) = existsb gp items.
Proof. reflexivity. Qed.

(* the edited table is at least as visible as before: what it contributes to its parent (a line or a header) it
   still contributes (a table made of dotted keys may trade its last line for a header below it) *)
Definition Rt (a b : tbl) : Prop :=
  t_dotted a = t_dotted b /\ t_implicit a = t_implicit b /\ (hl a || ph a = true -> hl b || ph b = true).
Definition Ri (a b : item) : Prop :=
  match a, b with
  | ITable x, ITable y => Rt x y
  | IAot x _, IAot y _ => x <> [] -> y <> []
  | IValue _, IValue _ => True
  | _, _ => False
  end.

Lemma Rt_refl a : Rt a a.
Proof. repeat split; auto. Qed.

Lemma vis_cond_iff t : vis_cond t <-> hl t || ph t = true.
Proof.
  unfold vis_cond, hl, ph. destruct (t_dotted t); simpl; rewrite orb_true_iff; tauto.
Qed.

Lemma vis_cond_keep a b : vis_cond a -> Rt a b -> vis_cond b.
Proof. intros Hc (_ & _ & H). apply vis_cond_iff. apply H. apply vis_cond_iff. exact Hc. Qed.

Lemma shown_true t : has_line t = true -> shown t = true.
Proof. unfold shown. intros ->. destruct (t_implicit t); reflexivity. Qed.

(* what a table contributes to its parent, from its own flags and entries *)
Lemma vis_items items d im dt p sp :
  hl (Tbl items d im dt p sp) || ph (Tbl items d im dt p sp)
  = (negb dt && negb im) || existsb (fun kv => gl kv || gp kv) items.
Proof.
  assert (E : existsb (fun kv => gl kv || gp kv) items = existsb gl items || existsb gp items).
  { induction items as [|kv l IH]; [reflexivity|]. simpl. rewrite IH.
    destruct (gl kv), (gp kv), (existsb gl l), (existsb gp l); reflexivity. }
  rewrite E. unfold hl, ph, shown. simpl t_dotted. simpl t_implicit. rewrite has_line_eq, prints_header_eq.
  destruct dt, im, (existsb gl items), (existsb gp items); reflexivity.
Qed.

(* one entry of a table replaced by an at-least-as-visible one *)
Lemma Rt_items k F items items' d im dt p sp :
  kv_upd k F items = Some items' ->
  (forall k' i i', In (k', i) items -> F i = Some i' -> Ri i i') ->
  Rt (Tbl items d im dt p sp) (Tbl items' d im dt p sp).
Proof.
  intros E Hr. unfold Rt. split; [reflexivity|]. split; [reflexivity|]. rewrite !vis_items. intro H.
  apply orb_true_iff in H as [H|H]; [rewrite H; reflexivity|]. apply orb_true_iff. right.
  destruct (existsb_kv_upd (fun kv => gl kv || gp kv) (fun kv => gl kv || gp kv) False k F items items' E H (fun _ H => H)) as [G|[]]; [|exact G].
  intros k' i i' Hin _ Fi G. left. specialize (Hr k' i i' Hin Fi). unfold gl, gp in *. simpl in *.
  destruct i as [|v|x|x sx]; destruct i' as [|v'|y|y sy]; simpl in Hr; try contradiction; try discriminate; auto.
  - destruct Hr as (_ & _ & H1). auto.
  - destruct x; [discriminate|]. destruct y; [exfalso; apply Hr; [discriminate|reflexivity]|reflexivity].
Qed.

(* -- inline tables in their context -- *)
Definition inline_line (c : ctx) (dt : bool) : bool :=
  match c with KEntry => dt | KPair l => dt && l | _ => false end.
Definition pair_ok (L : bool) (kv : key * item) : Prop := key_wf L (fst kv) /\ iwf (KPair L) (snd kv).

(* rebuilding an inline-table node in its slot *)
Lemma inline_node_rebuild c items items' pre im dt d sp :
  iwf c (IValue (VInline items pre im dt d sp)) ->
  NoDup (kkeys items') -> (items <> [] -> items' <> []) ->
  all_P (pair_ok (inline_line c dt)) items' ->
  iwf c (IValue (VInline items' pre im dt d sp)).
Proof.
  intros H Hn Hne Ha.
  destruct c as [| | |l|]; destruct dt; try destruct l; simpl in *; tauto.
Qed.
Lemma inline_node_rebuild_plain c items items' pre im d sp :
  iwf c (IValue (VInline items pre im false d sp)) ->
  NoDup (kkeys items') -> all_P (pair_ok (inline_line c false)) items' ->
  iwf c (IValue (VInline items' pre im false d sp)).
Proof. intros H Hn Ha. destruct c as [| | |l|]; try destruct l; simpl in *; tauto. Qed.
Lemma inline_node_parts c items pre im dt d sp :
  iwf c (IValue (VInline items pre im dt d sp)) ->
  NoDup (kkeys items) /\ all_P (pair_ok (inline_line c dt)) items.
Proof. destruct c as [| | |l|]; destruct dt; try destruct l; simpl; tauto. Qed.

(* -- arrays in their context -- *)
Definition arr_elem_ok (it : item) : Prop := match it with IValue e => value_wf CArr e | _ => False end.

(* an array node in its slot: only the elements matter *)
Lemma array_node_rebuild c vals vals' tr cm d sp :
  iwf c (IValue (VArray vals tr cm d sp)) -> all_P arr_elem_ok vals' ->
  iwf c (IValue (VArray vals' tr cm d sp)).
Proof. intros H Ha. destruct c as [| | |l|]; try destruct l; simpl in *; tauto. Qed.
Lemma array_node_parts c vals tr cm d sp :
  iwf c (IValue (VArray vals tr cm d sp)) -> all_P arr_elem_ok vals.
Proof. destruct c as [| | |l|]; try destruct l; simpl; tauto. Qed.

(* -- the lifting -- *)
(* what an operation does at its node: the node stays well-formed in its slot and at least as visible *)
Definition node_ok (f : item -> option item) : Prop :=
  forall c i i', f i = Some i' -> iwf c i -> iwf c i' /\ Ri i i'.

Lemma iwf_entry_not_none i : iwf KEntry i -> i <> INone.
Proof. intros H ->. exact H. Qed.

(* rebuilding a table node in its slot *)
Lemma tbl_node_rebuild c items items' d im dt p sp :
  iwf c (ITable (Tbl items d im dt p sp)) ->
  NoDup (kkeys items') -> all_P entry_ok items' ->
  Rt (Tbl items d im dt p sp) (Tbl items' d im dt p sp) ->
  iwf c (ITable (Tbl items' d im dt p sp)) /\ Ri (ITable (Tbl items d im dt p sp)) (ITable (Tbl items' d im dt p sp)).
Proof.
  intros Hw Hn Ha Hr. split; [|exact Hr].
  destruct c as [| | |l|]; cbn [iwf] in *; try contradiction.
  - apply tbl_wf_eq in Hw as (Hd & _ & _). apply tbl_wf_eq. auto.
  - destruct Hw as [Hw Hv]. apply tbl_wf_eq in Hw as (Hd & _ & _).
    split; [apply tbl_wf_eq; auto|exact (vis_cond_keep _ _ Hv Hr)].
  - destruct Hw as [Hdt Hw]. apply tbl_wf_eq in Hw as (Hd & _ & _). split; [exact Hdt|apply tbl_wf_eq; auto].
Qed.
Lemma tbl_node_parts c items d im dt p sp :
  iwf c (ITable (Tbl items d im dt p sp)) -> NoDup (kkeys items) /\ all_P entry_ok items.
Proof.
  destruct c as [| | |l|]; intro Hw.
  - exact (proj2 (proj1 (tbl_wf_eq true items d im dt p sp) Hw)).
  - exact (proj2 (proj1 (tbl_wf_eq false items d im dt p sp) (proj1 Hw))).
  - exact (proj2 (proj1 (tbl_wf_eq false items d im dt p sp) (proj2 Hw))).
  - destruct l; exact (False_ind _ Hw).
  - exact (False_ind _ Hw).
Qed.

Lemma at_path_wf P f : node_ok f -> node_ok (at_path P f).
Proof.
  intro Hf. induction P as [|s P IH]; [exact Hf|].
  intros c it it' H Hw. destruct s as [k|n]; simpl in H.
  - destruct it as [|[sc r d|vals tr cm d sp|items pre im dt d sp]|[items d im dt pos sp]|ts sp]; try discriminate.
    + (* through an inline table *)
      destruct (kv_upd k _ items) as [items'|] eqn:E; simpl in H; [|discriminate]. injection H as <-.
      split; [|exact I]. destruct (inline_node_parts _ _ _ _ _ _ _ Hw) as [Hn Ha].
      apply (inline_node_rebuild c items items' pre im dt d sp Hw);
        [rewrite (kv_upd_keys _ _ _ _ E); exact Hn|apply kkeys_nonnil, (kv_upd_keys _ _ _ _ E)|].
      apply (all_P_kv_upd (pair_ok (inline_line c dt)) k _ items items' E Ha).
      intros k' i i' Hin Fi [Hk Hi]. cbv beta in Fi. destruct i as [|v| |]; try discriminate.
      destruct (at_path P f (IValue v)) as [[|v'| |]|] eqn:A; try discriminate. injection Fi as <-.
      split; [exact Hk|]. exact (proj1 (IH _ _ _ A Hi)).
    + (* through a table *)
      destruct (kv_upd k _ items) as [items'|] eqn:E; simpl in H; [|discriminate]. injection H as <-.
      destruct (tbl_node_parts _ _ _ _ _ _ _ Hw) as [Hn Ha].
      apply (tbl_node_rebuild c items items' d im dt pos sp Hw).
      * rewrite (kv_upd_keys _ _ _ _ E). exact Hn.
      * apply (all_P_kv_upd entry_ok k _ items items' E Ha). intros k' i i' _ Fi [Hk Hi]. split; [exact Hk|].
        destruct (item_is_none i); [discriminate|]. exact (proj1 (IH _ _ _ Fi Hi)).
      * apply (Rt_items k _ items items' d im dt pos sp E). intros k' i i' Hin Fi.
        destruct (item_is_none i); [discriminate|].
        exact (proj2 (IH _ _ _ Fi (proj2 (all_P_In entry_ok items (k', i) Ha Hin)))).
  - destruct it as [|[sc r d|vals tr cm d sp|items pre im dt d sp]|[items d im dt pos sp]|ts sp]; try discriminate.
    + (* through an array *)
      destruct (nth_upd n _ vals) as [vals'|] eqn:E; simpl in H; [|discriminate]. injection H as <-.
      split; [|exact I]. apply (array_node_rebuild c vals vals' tr cm d sp Hw).
      apply (all_P_nth_upd arr_elem_ok n _ vals vals' E (array_node_parts _ _ _ _ _ _ Hw)).
      intros x x' _ Fx Hx. cbv beta in Fx. destruct x as [|v| |]; try contradiction.
      destruct (at_path P f (IValue v)) as [[|v'| |]|] eqn:A; try discriminate. injection Fx as <-.
      exact (proj1 (IH KArr _ _ A Hx)).
    + (* through an array of tables *)
      destruct (nth_upd n _ ts) as [ts'|] eqn:E; simpl in H; [|discriminate]. injection H as <-.
      destruct c as [| | |l|]; simpl in Hw; try contradiction.
      destruct Hw as [Hn Ha]. split; [|intros _; exact (nth_upd_nonnil _ _ _ _ E)].
      split; [exact (nth_upd_nonnil _ _ _ _ E)|].
      apply (all_P_nth_upd _ n _ ts ts' E Ha).
      intros x x' _ Fx Hx. cbv beta in Fx.
      destruct (at_path P f (ITable x)) as [[| |t'|]|] eqn:A; simpl in Fx; try discriminate. injection Fx as <-.
      exact (proj1 (IH KElem _ _ A Hx)).
Qed.
