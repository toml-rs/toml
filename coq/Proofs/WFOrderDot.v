(* Proofs/WFOrderDot.v — sections in Display's order, part 4: key/value lines with dotted keys.
   Display regroups the lines of a section: the lines through one table made of dotted keys come out together.  On the
   specification side this changes nothing (Proofs/WFSem.v dfold: a dotted forest, flattened, folds to itself).  Here:
     PLv st X           the tree of C09's invariant with X put where the open section is (`plug` of Proofs/DefsEquivSpec.v);
     lines_run          key/value statements at the path of the open section act on what is plugged there;
     pure_items L       the entries the lines of a section make: written values, and tables made of dotted keys holding
                        such entries only; `pure_fold`: their lines (Display's order) fold to their abstraction;
     keyval_shape       on_keyval keeps the open table of the form  <sub-tables it had when opened> ++ <pure entries>,
                        unless the dotted key runs through a super-table (class U1), which a decided step excludes
                        (`u1_excluded`); `sds_shape`: so does the span bookkeeping of descend_path;
     nlr / nls          the shape of the tree of a run: a table made by headers only (implicit, not dotted) holds
                        sections only; kept by descend_path for headers, finalize_table, start_table, start_array_table. *)
From TV Require Import Base.Prelude Spec.Defs Spec.WF.
From TV Require Import Model.Tree Model.Parse Model.Document.
From TV Require Import Proofs.DefsEquivBase Proofs.DefsEquivSpec Proofs.DefsEquivWalk Proofs.DefsEquivSim
                       Proofs.PrintBackSecs Proofs.PrintBackDAll.
From TV Require Import Proofs.WFSem Proofs.WFPrintKey Proofs.WFPrintFlat Proofs.WFTree Proofs.WFPrintDoc Proofs.WFParseValue
                       Proofs.WFParseState Proofs.WFOrderBase Proofs.WFOrderState.
From TV Require Import Proofs.KvFacts.
From TV Require Import Proofs.DocumentOps.
Require Import Lia NArith.

(* ---- the open section inside the tree ------------------------------------------------------------------------------------ *)
Definition PLv (st : pstate) (X : stree value) : res (stree value * unit) :=
  match pop_key (st_path st) with
  | Some (pre, k) => at_path_x (keys pre) (plug (st_is_array st) (k_key k) X) (abs_tbl (st_root st))
  | None => ROk (X, tt)
  end.

Lemma Inv_PLv st T cp : Inv st (T, cp) -> cp = keys (st_path st) /\ PLv st (abs_tbl (st_current st)) = ROk (T, tt).
Proof.
  intros (Hcp & _ & _ & _ & _ & _ & _ & Hplug). split; [exact Hcp|]. unfold PLv. destruct (pop_key (st_path st)) as [[pre k]|]; [exact Hplug|].
  destruct Hplug as [_ ->]. reflexivity.
Qed.

Lemma PLv_any st X X' Y : PLv st X = ROk (Y, tt) -> exists Y', PLv st X' = ROk (Y', tt).
Proof.
  unfold PLv. destruct (pop_key (st_path st)) as [[pre k]|]; [apply plug_any|]. intros _. eauto.
Qed.

(* key/value statements at the path of the open section *)
Lemma lines_run st : forall (ps : list (list bytes * value)) c c' Xc,
  PLv st c = ROk (Xc, tt) -> inline_fold c ps = ROk c' ->
  exists Xc', PLv st c' = ROk (Xc', tt)
              /\ spec_fold true (Xc, keys (st_path st)) (map (fun pv => SKeyVal (fst pv) (snd pv)) ps) = ROk (Xc', keys (st_path st)).
Proof.
  induction ps as [|[p v] ps IH]; intros c c' Xc HP Hf; cbn [inline_fold map spec_fold] in *.
  - injection Hf as <-. exists Xc. auto.
  - destruct (insert_kv true p v c) as [c1| |] eqn:Ei; try discriminate. cbn [rbind] in Hf.
    destruct (PLv_any st c c1 Xc HP) as (Xc1 & HP1). destruct (IH c1 c' Xc1 HP1 Hf) as (Xc' & HP' & Hrun). exists Xc'. split; [exact HP'|].
    cbn [spec_step fst snd]. assert (Es : at_path (keys (st_path st)) (insert_kv true p v) Xc = ROk Xc1).
    { unfold PLv in HP, HP1. destruct (pop_key (st_path st)) as [[pre k]|] eqn:Ep.
      - rewrite (pop_key_some _ _ _ Ep). unfold keys. rewrite map_app. cbn [map]. fold (keys pre).
        rewrite at_path_lift, (plug_then_walk _ _ (lift (insert_kv true p v)) c (keys pre) _ Xc HP). unfold lift at 1. rewrite Ei. cbn [rbind fst snd].
        rewrite HP1. reflexivity.
      - rewrite (pop_key_none _ Ep). cbn [keys map at_path]. injection HP as <-. injection HP1 as <-. exact Ei. }
    rewrite Es. cbn [rbind]. exact Hrun.
Qed.

(* ---- the entries key/value lines make --------------------------------------------------------------------------------------- *)
Definition pure_e_of (pure_t : tbl -> Prop) (kv : key * item) : Prop :=
  match snd kv with
  | IValue v => written v
  | ITable sub => t_dotted sub = true /\ t_implicit sub = true /\ t_position sub = None /\ pure_t sub
  | _ => False
  end.
Fixpoint pure_t (t : tbl) {struct t} : Prop := match t with Tbl items _ _ _ _ _ => items <> [] /\ all_P (pure_e_of pure_t) items end.
Definition pure_e : key * item -> Prop := pure_e_of pure_t.
Definition pure_items (L : list (key * item)) : Prop := all_P pure_e L.
Lemma pure_t_eq t : pure_t t <-> t_items t <> [] /\ pure_items (t_items t).
Proof. destruct t; reflexivity. Qed.

(* as a forest of values *)
Fixpoint dnv (it : item) {struct it} : dnode value :=
  match it with
  | IValue v => DV v
  | ITable (Tbl items _ _ _ _ _) => DT (map (fun kv => (k_key (fst kv), dnv (snd kv))) items)
  | _ => DT []
  end.
Definition dfv (L : list (key * item)) : list (bytes * dnode value) := map (fun kv => (k_key (fst kv), dnv (snd kv))) L.
Lemma dnv_table sub : dnv (ITable sub) = DT (dfv (t_items sub)).
Proof. destruct sub; reflexivity. Qed.

Lemma pure_ind (P : list (key * item) -> Prop) :
  P [] ->
  (forall k v L, written v -> pure_items L -> P L -> P ((k, IValue v) :: L)) ->
  (forall k sub L, t_dotted sub = true -> t_implicit sub = true -> t_position sub = None -> t_items sub <> [] -> pure_items (t_items sub) ->
                   P (t_items sub) -> pure_items L -> P L -> P ((k, ITable sub) :: L)) ->
  forall L, pure_items L -> P L.
Proof.
  intros H0 Hv Ht. assert (G : forall t : tbl, pure_items (t_items t) -> P (t_items t)).
  { induction t as [items d im dt p sp IH] using tbl_sub_ind. cbn [t_items]. induction items as [|[k it] items IHi]; intro Hp; [exact H0|].
    inversion IH as [|? ? H1 H2]; subst. destruct Hp as [He Hp]. unfold pure_e, pure_e_of in He. cbn [snd] in He, H1. destruct it as [|v|sub|ts asp]; try contradiction.
    - apply Hv; [exact He|exact Hp|apply IHi; assumption].
    - destruct He as (Hd & Hi & Hq & Hs). apply pure_t_eq in Hs as [Hne Hs]. apply Ht; auto. }
  intros L HL. exact (G (Tbl L decor_default false false None None) HL).
Qed.

Definition vline (pv : list key * value) : list bytes * value := (ktexts (fst pv), snd pv).

Lemma written_iflat parent k v : written v -> iflat_item parent k (IValue v) = [(parent ++ [k], v)].
Proof. destruct v as [x r d|vals tr c d sp|sub pre im dt d sp]; try reflexivity. intros [_ ->]. reflexivity. Qed.

Lemma tfl_cons p kv L : tfl p (kv :: L) = tflat_item p (fst kv) (snd kv) ++ tfl p L.
Proof. reflexivity. Qed.
Lemma dflat_cons {V} (x : bytes * dnode V) l : dflat V (x :: l) = dflat_node V (fst x) (snd x) ++ dflat V l.
Proof. reflexivity. Qed.

Lemma pure_dflat : forall L, pure_items L -> forall parent,
  map vline (tfl parent L) = map (fun pv => (ktexts parent ++ fst pv, snd pv)) (dflat value (dfv L)).
Proof.
  apply (pure_ind (fun L => forall parent, map vline (tfl parent L) = map (fun pv => (ktexts parent ++ fst pv, snd pv)) (dflat value (dfv L)))).
  - reflexivity.
  - intros k v L Hw _ IH parent. unfold dfv. cbn [map fst snd]. rewrite tfl_cons, dflat_cons, !map_app. fold (dfv L). rewrite (IH parent). f_equal.
    cbn [fst snd tflat_item dnv dflat_node]. rewrite (written_iflat _ _ _ Hw). cbn [map]. unfold vline. cbn [fst snd]. rewrite ktexts_snoc. reflexivity.
  - intros k sub L Hd _ _ _ _ IHs _ IH parent. unfold dfv. cbn [map fst snd]. rewrite tfl_cons, dflat_cons, !map_app. fold (dfv L). rewrite (IH parent). f_equal.
    cbn [fst snd tflat_item]. rewrite Hd, dnv_table, tflat_tfl, (IHs (parent ++ [k])). cbn [dflat_node]. fold (dflat value (dfv (t_items sub))).
    rewrite !map_map. apply map_ext. intros [q x]. cbn [fst snd]. rewrite ktexts_snoc, <- app_assoc. reflexivity.
Qed.

Lemma abs_items_cons kv L : abs_items (kv :: L) = (k_key (fst kv), abs_item (snd kv)) :: abs_items L.
Proof. reflexivity. Qed.
Lemma dres_cons {V} (x : bytes * dnode V) l : dres V (x :: l) = (fst x, dres_node V (snd x)) :: dres V l.
Proof. reflexivity. Qed.

Lemma pure_dres : forall L, pure_items L -> dres value (dfv L) = abs_items L.
Proof.
  apply (pure_ind (fun L => dres value (dfv L) = abs_items L)).
  - reflexivity.
  - intros k v L _ _ IH. unfold dfv. cbn [map]. fold (dfv L). rewrite dres_cons, abs_items_cons, IH. reflexivity.
  - intros k sub L Hd Hi _ _ _ IHs _ IH. unfold dfv. cbn [map]. fold (dfv L). rewrite dres_cons, abs_items_cons, IH. cbn [fst snd]. f_equal. f_equal.
    rewrite dnv_table. change (abs_item (ITable sub)) with (NTab (kind_of sub) (abs_tbl sub)). unfold kind_of. rewrite Hi, Hd.
    cbn [dres_node]. f_equal. fold (dres value (dfv (t_items sub))). rewrite abs_tbl_eq. exact IHs.
Qed.

Lemma dfv_keys L : map fst (dfv L) = map kk L.
Proof. unfold dfv. rewrite map_map. reflexivity. Qed.

(* unique keys, hereditarily through the tables made of dotted keys *)
Lemma pure_dwf : forall L, pure_items L -> uks2 anyk L -> NoDup (map kk L) -> dwf value (dfv L).
Proof.
  apply (pure_ind (fun L => uks2 anyk L -> NoDup (map kk L) -> dwf value (dfv L))).
  - intros _ _. split; constructor.
  - intros k v L _ _ IH Hu Hn. inversion Hu as [|? ? _ Hu']; subst. cbn [map] in Hn. inversion Hn as [|? ? Hk Hn']; subst. destruct (IH Hu' Hn') as [H1 H2].
    split; [unfold dfv; cbn [map fst]; constructor; [rewrite <- dfv_keys in Hk; exact Hk|exact H1]|]. unfold dfv. cbn [map snd dnv]. constructor; [constructor|exact H2].
  - intros k sub L _ _ _ Hne _ IHs _ IH Hu Hn. inversion Hu as [|? ? [_ Hus] Hu']; subst. cbn [snd uki2] in Hus. apply uk2_eq in Hus as [Hns Hss].
    cbn [map] in Hn. inversion Hn as [|? ? Hk Hn']; subst. destruct (IH Hu' Hn') as [H1 H2]. destruct (IHs Hss Hns) as [S1 S2].
    split; [unfold dfv; cbn [map fst]; constructor; [rewrite <- dfv_keys in Hk; exact Hk|exact H1]|]. unfold dfv. cbn [map snd]. constructor; [|exact H2].
    rewrite dnv_table. constructor; [destruct (t_items sub); [congruence|discriminate]|exact S1|exact S2].
Qed.

(* the lines of pure entries, in Display's order, fold to their abstraction *)
Lemma pure_fold L C : pure_items L -> uks2 anyk L -> NoDup (map kk L) -> (forall x, In x (map kk L) -> ~ In x (map fst C)) ->
  inline_fold C (map vline (tfl [] L)) = ROk (C ++ abs_items L).
Proof.
  intros Hp Hu Hn Hd. rewrite (pure_dflat L Hp []). cbn [ktexts map app].
  replace (map (fun pv : list bytes * value => (fst pv, snd pv)) (dflat value (dfv L))) with (dflat value (dfv L))
    by (rewrite <- (map_id (dflat value (dfv L))) at 1; apply map_ext; intros [q x]; reflexivity).
  rewrite (dfold value (dfv L) C (pure_dwf L Hp Hu Hn)); [rewrite (pure_dres L Hp); reflexivity|]. rewrite dfv_keys. exact Hd.
Qed.

(* ---- the open table: the sub-tables it had when opened, then pure entries ----------------------------------------------- *)
Definition is_sec (kv : key * item) : Prop :=
  match snd kv with
  | ITable sub => t_dotted sub = false
  | IAot ts _ => Forall (fun e => t_dotted e = false) ts
  | _ => False
  end.

Lemma tfl_secs p T0 : Forall is_sec T0 -> tfl p T0 = [].
Proof.
  induction 1 as [|[k it] T0 H _ IH]; [reflexivity|]. rewrite tfl_cons, IH, app_nil_r. unfold is_sec in H. cbn [fst snd] in *.
  destruct it as [|v|sub|ts asp]; try contradiction; cbn [tflat_item]; [rewrite H|]; reflexivity.
Qed.

Lemma BbI_pure : forall L, pure_items L -> forall P, BbI L P = [].
Proof.
  apply (pure_ind (fun L => forall P, BbI L P = [])).
  - reflexivity.
  - intros k v L _ _ IH P. cbn [BbI flat_map]. fold (BbI L P). rewrite IH. reflexivity.
  - intros k sub L Hd _ _ _ _ IHs _ IH P. cbn [BbI flat_map]. fold (BbI L P). rewrite IH, app_nil_r. unfold Bit. cbn [fst snd]. rewrite Bb_eq.
    unfold own_e. rewrite Hd. cbn [app]. apply IHs.
Qed.

Lemma pure_hentries : forall L, pure_items L -> all_P hentry L.
Proof.
  apply (pure_ind (fun L => all_P hentry L)).
  - exact I.
  - intros k v L _ _ IH. split; [exact I|exact IH].
  - intros k sub L Hd Hi Hq _ _ IHs _ IH. split; [|exact IH]. unfold hentry, hentry_of. cbn [snd]. split; [apply hp_eq, IHs|]. split; [intros _; exact Hq|]. intro X. congruence.
Qed.

Lemma hframe_flags t t' : hframe t t' -> t_implicit t' = t_implicit t /\ t_dotted t' = t_dotted t /\ t_position t' = t_position t.
Proof. intros (_ & H2 & H3 & H4 & _). auto. Qed.

(* a dotted key below a table of pure entries *)
Lemma dctx_pure p r r' par par' : dctx_rel true p r r' par par' -> pure_items (t_items r) ->
  pure_items (t_items par)
  /\ (pure_items (t_items par') -> t_items par' <> [] -> hframe par par' -> pure_items (t_items r') /\ t_items r' <> [] /\ hframe r r').
Proof.
  induction 1 as [t t'|t k p sub par par' G Hc IH|t k p k0 sub sub' par par' G Hc IH|t k p k0 ts sp last rinit last' par par' G Er Hc IH]; intro Hp.
  - auto.
  - destruct IH as [H1 H2]; [exact I|]. split; [exact H1|]. intros Hp' Hne Hf. destruct (H2 Hp' Hne Hf) as (Hs & Hsn & Hsf).
    rewrite items_set_items. split; [|split; [unfold kv_push; destruct (t_items t); discriminate|apply hframe_set_items]].
    apply all_P_push; [exact Hp|]. unfold pure_e, pure_e_of. cbn [snd]. destruct (hframe_flags _ _ Hsf) as (F1 & F2 & F3). cbn [implicitd t_implicit t_dotted t_position] in *.
    repeat (split; [assumption|]). apply pure_t_eq. auto.
  - pose proof (all_P_get _ _ _ _ _ Hp G) as He. unfold pure_e, pure_e_of in He. cbn [snd] in He. destruct He as (Hd & Hi & Hq & Hs). apply pure_t_eq in Hs as [_ Hs].
    destruct (IH Hs) as [H1 H2]. split; [exact H1|]. intros Hp' Hne Hf. destruct (H2 Hp' Hne Hf) as (Hs' & Hsn & Hsf).
    rewrite items_set_items. split; [|split; [apply (kv_set_nonempty _ _ _ _ _ G)|apply hframe_set_items]].
    apply (all_P_set _ _ _ k0 _ _ Hp G). unfold pure_e, pure_e_of. cbn [snd]. destruct (hframe_flags _ _ Hsf) as (F1 & F2 & F3).
    split; [congruence|]. split; [congruence|]. split; [congruence|]. apply pure_t_eq. auto.
  - pose proof (all_P_get _ _ _ _ _ Hp G) as He. contradiction.
Qed.

(* below the sub-tables T0 that the first key does not meet, descend_path works on the rest of the entries alone *)
Lemma dctx_below d k p r r' par par' T0 L :
  dctx_rel d (k :: p) r r' par par' -> t_items r = T0 ++ L -> kv_get T0 (k_key k) = None ->
  exists r2, dctx_rel d (k :: p) (t_set_items r L) r2 par par' /\ t_items r' = T0 ++ t_items r2.
Proof.
  intros Hc Hit G0.
  inversion Hc as [|t k1 p1 sub par0 par0' G Hs|t k1 p1 k0 sub sub' par0 par0' G Hs|t k1 p1 k0 ts sp last rinit last' par0 par0' G Er Hs]; subst;
    rewrite Hit, kv_get_app, G0 in G; rewrite <- (items_set_items r L) in G; rewrite items_set_items, Hit; eexists.
  - split; [apply (dcr_new d _ _ _ _ _ _ G Hs)|]. rewrite !items_set_items. unfold kv_push. rewrite app_assoc. reflexivity.
  - split; [apply (dcr_tab d _ _ _ _ _ _ _ _ G Hs)|]. rewrite !items_set_items. apply (kv_set_app_r _ _ _ _ G0).
  - split; [apply (dcr_aot d _ _ _ _ _ _ _ _ _ _ _ G Er Hs)|]. rewrite !items_set_items. apply (kv_set_app_r _ _ _ _ G0).
Qed.

Lemma keyval_shape st path k v st' T0 L :
  on_keyval st path k (IValue v) = COk st' -> t_items (st_current st) = T0 ++ L -> Forall is_sec T0 -> pure_items L -> written v ->
  (forall k1 p1 k0 sub, path = k1 :: p1 -> kv_get T0 (k_key k1) = Some (k0, ITable sub) -> t_implicit sub = true -> False) ->
  exists L', (forall k1 p1, path = k1 :: p1 -> kv_get T0 (k_key k1) = None) /\ t_items (st_current st') = T0 ++ L' /\ pure_items L'
             /\ st_root st' = st_root st /\ st_path st' = st_path st /\ st_is_array st' = st_is_array st /\ st_position st' = st_position st
             /\ t_implicit (st_current st') = t_implicit (st_current st) /\ t_dotted (st_current st') = t_dotted (st_current st)
             /\ t_position (st_current st') = t_position (st_current st).
Proof.
  unfold on_keyval. cbv zeta. intros H Hit Hsec Hpure Hw Hu1.
  match type of H with context [kv_push _ ?K (IValue v)] => set (k' := K) in * end.
  match type of H with context [with_table_at ?c path true ?F] => set (cur0 := c) in *; set (f := F) in * end.
  assert (Hc0 : t_items cur0 = T0 ++ L /\ t_implicit cur0 = t_implicit (st_current st) /\ t_dotted cur0 = t_dotted (st_current st)
                /\ t_position cur0 = t_position (st_current st)).
  { subst cur0. destruct (t_span (st_current st)); [destruct (item_span (IValue v))|]; destruct (st_current st); auto. }
  destruct Hc0 as (Hit0 & C1 & C2 & C3).
  destruct (with_table_at cur0 path true f) as [[cur' u]| |] eqn:E; try discriminate. injection H as <-. cbn [st_root st_current st_path st_is_array st_position].
  destruct (wta_dctx true f _ _ _ _ E) as (par & par' & Hfp & Hctx).
  assert (Epar' : par' = t_set_items par (kv_push (t_items par) k' (IValue v))).
  { subst f. cbv beta in Hfp. destruct (Bool.eqb (t_dotted par) _); [discriminate|]. destruct (kv_get (t_items par) (k_key k')); [discriminate|].
    injection Hfp as <- _. reflexivity. }
  assert (Hfr : hframe cur0 cur') by (apply (dctx_hframe _ _ _ _ _ _ Hctx); rewrite Epar'; apply hframe_set_items).
  assert (G : (forall k1 p1, path = k1 :: p1 -> kv_get T0 (k_key k1) = None) /\ exists L', t_items cur' = T0 ++ L' /\ pure_items L').
  { destruct path as [|k1 p1].
    - inversion Hctx; subst. split; [discriminate|]. exists (L ++ [(k', IValue v)]). rewrite items_set_items, Hit0. unfold kv_push. rewrite <- app_assoc.
      split; [reflexivity|]. apply all_P_app. split; [exact Hpure|split; [exact Hw|exact I]].
    - assert (G0 : kv_get T0 (k_key k1) = None).
      { (* a section under the first key: a header table refuses a dotted key unless it is a super-table (U1), an array of tables always *)
        cbn [with_table_at] in E. rewrite Hit0, kv_get_app in E. destruct (kv_get T0 (k_key k1)) as [[k0 it0]|] eqn:G0; [exfalso|reflexivity].
        pose proof (proj1 (Forall_forall _ _) Hsec _ (kv_get_In _ _ _ _ G0)) as Hs0. unfold is_sec in Hs0. cbn [snd] in Hs0. destruct it0 as [|v0|sub|ts asp]; try contradiction.
        - destruct (t_implicit sub) eqn:Ei; [exact (Hu1 k1 p1 k0 sub eq_refl G0 Ei)|]. cbn [andb negb] in E. discriminate.
        - destruct p1 as [|k2 p2]; [|cbn [andb] in E; discriminate]. cbn [andb] in E. destruct (rev ts) as [|last rinit] eqn:Er; [discriminate|].
          cbn [with_table_at] in E. subst f. cbv beta in E.
          assert (Hl : t_dotted last = false) by (rewrite Forall_forall in Hs0; apply Hs0, in_rev; rewrite Er; left; reflexivity).
          rewrite Hl in E. cbn [Bool.eqb] in E. discriminate. }
      split; [intros ? ? Eq; injection Eq as <- _; exact G0|].
      destruct (dctx_below _ _ _ _ _ _ _ T0 L Hctx Hit0 G0) as (r2 & Hctx2 & Eit).
      destruct (dctx_pure _ _ _ _ _ Hctx2) as [Hpp Hres]; [rewrite items_set_items; exact Hpure|].
      exists (t_items r2). split; [exact Eit|]. apply Hres; rewrite Epar', ?items_set_items;
        [apply all_P_push; [exact Hpp|exact Hw]|unfold kv_push; destruct (t_items par); discriminate|apply hframe_set_items]. }
  destruct G as (G0 & L' & G1 & G2). destruct (hframe_flags _ _ Hfr) as (F1 & F2 & F3).
  exists L'. split; [exact G0|]. split; [exact G1|]. split; [exact G2|]. repeat (split; [reflexivity|]). split; [congruence|]. split; congruence.
Qed.

(* class U1 is what a decided step excludes *)
Lemma u1_excluded st T cp path k (v : value) k1 p1 k0 sub :
  Inv st (T, cp) -> spec_step true (T, cp) (SKeyVal (keys path ++ [k_key k]) v) <> RUndecided ->
  path = k1 :: p1 -> kv_get (t_items (st_current st)) (k_key k1) = Some (k0, ITable sub) -> t_implicit sub = true -> t_dotted sub = false -> False.
Proof.
  intros HI Hs -> G Hi Hd. destruct (Inv_PLv st T cp HI) as [-> HP]. apply Hs. cbn [spec_step].
  assert (E : at_path (keys (st_path st)) (insert_kv true (keys (k1 :: p1) ++ [k_key k]) v) T = RUndecided); [|rewrite E; reflexivity].
  assert (Ei : insert_kv true (keys (k1 :: p1) ++ [k_key k]) v (abs_tbl (st_current st)) = RUndecided).
  { change (keys (k1 :: p1) ++ [k_key k]) with (k_key k1 :: (keys p1 ++ [k_key k])). destruct (keys p1 ++ [k_key k]) as [|k2 rest] eqn:Er; [destruct (keys p1); discriminate|].
    rewrite (insert_kv_cons value), abs_tbl_eq, abs_get, G. cbn [abs_item]. unfold kind_of. rewrite Hi, Hd. reflexivity. }
  unfold PLv in HP. destruct (pop_key (st_path st)) as [[pre kl]|] eqn:Ep.
  - rewrite (pop_key_some _ _ _ Ep). unfold keys at 1. rewrite map_app. cbn [map]. fold (keys pre).
    rewrite at_path_lift, (plug_then_walk _ _ (lift (insert_kv true _ v)) _ (keys pre) _ T HP). unfold lift at 1. rewrite Ei. reflexivity.
  - rewrite (pop_key_none _ Ep). cbn [keys map at_path]. injection HP as <-. exact Ei.
Qed.

(* ---- the span bookkeeping of descend_path keeps the shape ------------------------------------------------------------------ *)
Lemma sds_pure : forall path t e, pure_items (t_items t) ->
  pure_items (t_items (set_dotted_spans t path e)) /\ (t_items t <> [] -> t_items (set_dotted_spans t path e) <> []).
Proof.
  induction path as [|k ptl IH]; intros t e Hp; [auto|].
  destruct (set_dotted_spans_cons t k ptl e) as [->|(k0 & sub & sp & G & ->)]; [auto|].
  pose proof (all_P_get _ _ _ _ _ Hp G) as He. unfold pure_e, pure_e_of in He. cbn [snd] in He. destruct He as (Hd & Hi & Hq & Hs). apply pure_t_eq in Hs as [Hne Hs].
  destruct (hframe_flags _ _ (set_dotted_spans_hframe (t_set_span sub sp) ptl e)) as (F1 & F2 & F3).
  destruct sub as [si sd sim sdt spos ssp]. cbn [t_set_span t_items t_implicit t_dotted t_position] in *. destruct (IH (Tbl si sd sim sdt spos sp) e Hs) as [I1 I2]. cbn [t_items] in I2.
  rewrite items_set_items. split; [|intros _; apply (kv_set_nonempty _ _ _ _ _ G)].
  apply (all_P_set _ _ _ k0 _ _ Hp G). unfold pure_e, pure_e_of. cbn [snd]. split; [congruence|]. split; [congruence|]. split; [congruence|].
  apply pure_t_eq. split; [apply I2, Hne|exact I1].
Qed.

(* below the sub-tables T0 the open table had when it was opened, whose keys the path does not meet *)
Lemma sds_app t path e T0 L : t_items t = T0 ++ L -> (forall k1 p1, path = k1 :: p1 -> kv_get T0 (k_key k1) = None) ->
  t_items (set_dotted_spans t path e) = T0 ++ t_items (set_dotted_spans (t_set_items t L) path e).
Proof.
  intros Hit Hfree. destruct path as [|k ptl]; [cbn [set_dotted_spans]; rewrite items_set_items; exact Hit|]. cbn [set_dotted_spans].
  rewrite items_set_items, Hit, kv_get_app, (Hfree k ptl eq_refl).
  destruct (kv_get L (k_key k)) as [[k0 [|v0|sub|ts asp]]|]; rewrite ?items_set_items, ?(kv_set_app_r _ _ _ _ (Hfree k ptl eq_refl)); try exact Hit. reflexivity.
Qed.

Lemma sds_shape path t e T0 L : t_items t = T0 ++ L -> pure_items L -> (forall k1 p1, path = k1 :: p1 -> kv_get T0 (k_key k1) = None) ->
  exists L', t_items (set_dotted_spans t path e) = T0 ++ L' /\ pure_items L'.
Proof.
  intros Hit Hp Hfree. exists (t_items (set_dotted_spans (t_set_items t L) path e)). split; [apply (sds_app _ _ _ _ _ Hit Hfree)|].
  apply sds_pure. rewrite items_set_items. exact Hp.
Qed.

(* ---- what the tree of a run looks like: a table made by headers only (implicit, not dotted) holds sections only -------- *)
Definition nls_of (nlr : tbl -> Prop) (t : tbl) : Prop := nlr t /\ (t_implicit t = true -> t_dotted t = false -> Forall is_sec (t_items t)).
Definition nentry_of (nlr : tbl -> Prop) (kv : key * item) : Prop :=
  match snd kv with
  | ITable sub => nls_of nlr sub
  | IAot ts _ => all_P (nls_of nlr) ts
  | _ => True
  end.
Fixpoint nlr (t : tbl) {struct t} : Prop := match t with Tbl items _ _ _ _ _ => all_P (nentry_of nlr) items end.
Definition nls : tbl -> Prop := nls_of nlr.
Definition nentry : key * item -> Prop := nentry_of nlr.
Lemma nlr_eq t : nlr t <-> all_P nentry (t_items t).
Proof. destruct t; reflexivity. Qed.

Lemma pure_nentries : forall L, pure_items L -> all_P nentry L.
Proof.
  apply (pure_ind (fun L => all_P nentry L)).
  - exact I.
  - intros k v L _ _ IH. split; [exact I|exact IH].
  - intros k sub L Hd _ _ _ _ IHs _ IH. split; [|exact IH]. unfold nentry, nentry_of, nls, nls_of. cbn [snd]. split; [apply nlr_eq, IHs|]. intros _ X. congruence.
Qed.

Lemma is_sec_set m k k0 it it' : Forall is_sec m -> kv_get m k = Some (k0, it) -> is_sec (k0, it') -> Forall is_sec (kv_set m k it').
Proof. intros H G Hi. apply all_P_Forall. apply all_P_Forall in H. apply (all_P_set _ _ _ k0 _ _ H G Hi). Qed.
Lemma is_sec_push m k it : Forall is_sec m -> is_sec (k, it) -> Forall is_sec (kv_push m k it).
Proof. intros H Hi. unfold kv_push. apply Forall_app. split; [exact H|constructor; [exact Hi|constructor]]. Qed.
Lemma is_sec_remove m k : Forall is_sec m -> Forall is_sec (kv_remove m k).
Proof. intro H. apply all_P_Forall. apply all_P_Forall in H. apply all_P_remove, H. Qed.
Lemma is_sec_get m k k0 it : Forall is_sec m -> kv_get m k = Some (k0, it) -> is_sec (k0, it).
Proof. intros H G. apply all_P_Forall in H. apply (all_P_get _ _ _ _ _ H G). Qed.

Lemma nls_set_items t m : all_P nentry m -> (t_implicit t = true -> t_dotted t = false -> Forall is_sec m) -> nls (t_set_items t m).
Proof. intros H1 H2. destruct t. split; [exact H1|exact H2]. Qed.

Lemma dctx_nls p r r' par par' : dctx_rel false p r r' par par' -> nls r -> nls par /\ (nls par' -> hframe par par' -> nls r').
Proof.
  induction 1 as [t t'|t k p sub par par' G Hc IH|t k p k0 sub sub' par par' G Hc IH|t k p k0 ts sp last rinit last' par par' G Er Hc IH]; intros [Hn Hs].
  - split; [split; assumption|auto].
  - destruct IH as [H1 H2]; [split; [exact I|intros _ _; constructor]|]. split; [exact H1|]. intros Hp Hf. pose proof (H2 Hp Hf) as Hsub.
    destruct (hframe_flags _ _ (dctx_hframe _ _ _ _ _ _ Hc Hf)) as (_ & Fd & _). cbn [implicitd t_dotted] in Fd.
    apply nls_set_items; [apply all_P_push; [apply nlr_eq, Hn|exact Hsub]|]. intros Hi Hd. apply is_sec_push; [apply Hs; assumption|exact Fd].
  - apply nlr_eq in Hn. pose proof (all_P_get _ _ _ _ _ Hn G) as Hsub. unfold nentry, nentry_of in Hsub. cbn [snd] in Hsub. destruct (IH Hsub) as [H1 H2].
    split; [exact H1|]. intros Hp Hf. pose proof (H2 Hp Hf) as Hsub'. destruct (hframe_flags _ _ (dctx_hframe _ _ _ _ _ _ Hc Hf)) as (_ & Fd & _).
    apply nls_set_items; [apply (all_P_set _ _ _ k0 _ _ Hn G); exact Hsub'|]. intros Hi Hd. specialize (Hs Hi Hd).
    apply (is_sec_set _ _ k0 _ _ Hs G). pose proof (is_sec_get _ _ _ _ Hs G) as H0. unfold is_sec in *. cbn [snd] in *. congruence.
  - apply nlr_eq in Hn. pose proof (all_P_get _ _ _ _ _ Hn G) as Hts. unfold nentry, nentry_of in Hts. cbn [snd] in Hts.
    assert (Ets : ts = rev rinit ++ [last]) by (rewrite <- (rev_involutive ts), Er; reflexivity).
    rewrite Ets in Hts. apply all_P_app in Hts as [Hinit [Hl _]]. destruct (IH Hl) as [H1 H2]. split; [exact H1|]. intros Hp Hf. pose proof (H2 Hp Hf) as Hl'.
    destruct (hframe_flags _ _ (dctx_hframe _ _ _ _ _ _ Hc Hf)) as (_ & Fd & _).
    apply nls_set_items; [apply (all_P_set _ _ _ k0 _ _ Hn G); unfold nentry, nentry_of; cbn [snd rev]; apply all_P_app; split; [exact Hinit|split; [exact Hl'|exact I]]|].
    intros Hi Hd. specialize (Hs Hi Hd). apply (is_sec_set _ _ k0 _ _ Hs G). pose proof (is_sec_get _ _ _ _ Hs G) as H0. unfold is_sec in *. cbn [snd rev] in *.
    rewrite Ets in H0. apply Forall_app in H0 as [H01 H02]. apply Forall_app. split; [exact H01|]. inversion H02; subst. constructor; [congruence|constructor].
Qed.

Lemma finalize_nls st st' ppath k :
  pop_key (st_path st) = Some (ppath, k) -> finalize_table st = COk st' -> nls (st_root st) -> nlr (st_current st) -> t_dotted (st_current st) = false ->
  t_implicit (st_current st) = false ->
  (st_is_array st = false -> exists par, reach (st_root st) ppath = Some par /\ kv_get (t_items par) (k_key k) = None) ->
  nls (st_root st').
Proof.
  intros Ep Hf Hr Hc Hcd Hci Habs. rewrite finalize_table_eq, Ep in Hf.
  destruct (with_table_at (st_root st) ppath false ((if st_is_array st then f_fin_aot else f_fin_std) k (st_current st))) as [[root' u]| |] eqn:E; try discriminate.
  injection Hf as <-. cbn [finalized st_root]. destruct (wta_dctx false _ _ _ _ _ E) as (par & par' & Hfp & Hctx).
  destruct (dctx_nls _ _ _ _ _ Hctx Hr) as [[Hpn Hps] Hback].
  assert (Hcs : nls (st_current st)) by (split; [exact Hc|intro X; congruence]).
  destruct (st_is_array st) eqn:Ea.
  - unfold f_fin_aot in Hfp. destruct (kv_get (t_items par) (k_key k)) as [[k0 it]|] eqn:G.
    + destruct it as [|v|sub|ts sp]; try discriminate. injection Hfp as <-. apply Hback; [|apply hframe_set_items]. apply nlr_eq in Hpn.
      pose proof (all_P_get _ _ _ _ _ Hpn G) as Hts. unfold nentry, nentry_of in Hts. cbn [snd] in Hts.
      apply nls_set_items; [apply (all_P_set _ _ _ k0 _ _ Hpn G); unfold nentry, nentry_of; cbn [snd]; apply all_P_app; split; [exact Hts|split; [exact Hcs|exact I]]|].
      intros Hi Hd. specialize (Hps Hi Hd). apply (is_sec_set _ _ k0 _ _ Hps G). pose proof (is_sec_get _ _ _ _ Hps G) as H0. unfold is_sec in *. cbn [snd] in *.
      apply Forall_app. split; [exact H0|constructor; [exact Hcd|constructor]].
    + injection Hfp as <-. apply Hback; [|apply hframe_set_items]. apply nlr_eq in Hpn.
      apply nls_set_items; [apply all_P_push; [exact Hpn|split; [exact Hcs|exact I]]|]. intros Hi Hd. apply is_sec_push; [apply Hps; assumption|].
      unfold is_sec. cbn [snd]. constructor; [exact Hcd|constructor].
  - destruct (Habs eq_refl) as (par0 & Hr0 & Hg). destruct (dctx_reach _ _ _ _ _ _ Hctx) as [_ Hpar]. rewrite (Hpar par0 Hr0) in Hg.
    unfold f_fin_std in Hfp. rewrite Hg in Hfp. injection Hfp as <-. apply Hback; [|apply hframe_set_items]. apply nlr_eq in Hpn.
    apply nls_set_items; [apply all_P_push; [exact Hpn|exact Hcs]|]. intros Hi Hd. apply is_sec_push; [apply Hps; assumption|exact Hcd].
Qed.

Lemma start_table_nls st path dec sp st' :
  start_table st path dec sp = COk st' -> nls (st_root st) -> t_items (st_current st) = [] ->
  nls (st_root st') /\ Forall is_sec (t_items (st_current st')) /\ all_P nentry (t_items (st_current st')).
Proof.
  intros H Hr Hcur. destruct (start_table_dctx _ _ _ _ _ H) as (_ & _ & ppath & k & root' & par & par' & taken & _ & Hctx & -> & Htk).
  destruct (dctx_nls _ _ _ _ _ Hctx Hr) as [[Hpn Hps] Hback]. cbn [open_table st_root st_current t_items]. destruct taken as [t|].
  - destruct Htk as ([k0 G] & Eim & Edt & ->). apply nlr_eq in Hpn.
    pose proof (all_P_get _ _ _ _ _ Hpn G) as [Htn Hts]. cbn [snd] in Htn, Hts. split; [|split; [apply Hts; assumption|apply nlr_eq, Htn]].
    apply Hback; [|apply hframe_set_items]. apply nls_set_items; [apply all_P_remove, Hpn|]. intros Hi Hd. apply is_sec_remove, Hps; assumption.
  - destruct Htk as [_ ->]. rewrite Hcur. split; [|split; [constructor|exact I]]. apply Hback; [split; assumption|apply hframe_refl].
Qed.

Lemma start_array_nls st path dec sp st' :
  start_array_table st path dec sp = COk st' -> nls (st_root st) -> nls (st_root st').
Proof.
  intros H Hr. destruct (start_array_table_dctx _ _ _ _ _ H) as (_ & _ & ppath & k & root' & par & par' & _ & Hctx & -> & Hpar').
  destruct (dctx_nls _ _ _ _ _ Hctx Hr) as [[Hpn Hps] Hback]. cbn [open_table st_root]. destruct Hpar' as [[_ ->]|[_ ->]].
  - apply Hback; [split; assumption|apply hframe_refl].
  - apply Hback; [|apply hframe_set_items]. apply nlr_eq in Hpn.
    apply nls_set_items; [apply all_P_push; [exact Hpn|exact I]|]. intros Hi Hd. apply is_sec_push; [apply Hps; assumption|]. unfold is_sec. cbn [snd]. constructor.
Qed.
