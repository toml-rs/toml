(* Proofs/PrintBackDoc.v — C03 for documents, what every class of documents shares.
   The line Display prints for a pair (`kv_line`).  One iteration of the loop of document.rs: what it
   reads and which call records it (`doc_line_toks`), and the loop over complete lines (`doc_loop_lines`:
   `lines_text`, the grammar-directed normal form of Proofs/TilingDefs.v).  The trivia between lines
   travels in `st_trailing` (`pending`) and becomes the prefix decor of the next key or header; the
   last stretch becomes the document's trailing. *)
From TV Require Import Base.Prelude Base.Winnow Gen.Consts Spec.Lex Spec.Defs Spec.Syntax.
From TV Require Import Model.Trivia Model.Tree Model.Parse Model.Document Model.Encode.
From TV Require Import Proofs.LexEquivBase Proofs.LexEquivTrivia Proofs.GrammarValueSound Proofs.GrammarDocLine Proofs.GrammarDoc
                       Proofs.TilingDefs Proofs.PrintBackBase Proofs.PrintBackEnc Proofs.PrintBackValue.
From TV Require Import Proofs.DocumentOps.
Require Import Lia ZifyBool ZifyN ZifyNat.

Lemma span_repr' s i t i' : isrc s i -> splits i t i' ->
  repr_str (Some (traw s (raw_with_span (pos i, pos i')))) = Some t.
Proof. exact (span_repr s i t i'). Qed.

(* a key/value line as Display prints it (Model/Encode.v visit_table) *)
Definition kv_line (s : bytes) (kv : key * value) : bytes :=
  encode_key_path [tkey s (fst kv)] DEFAULT_KEY_DECOR ++ [x3d]
  ++ encode_value (S (value_size (tvalue s (snd kv)))) (tvalue s (snd kv)) DEFAULT_VALUE_DECOR ++ [x0a].

(* the key with the pending trivia merged into its prefix (state.rs on_keyval) *)
Definition with_prefix (k : key) (P : raw) : key := set_leaf k (mkDecor (Some P) (d_suffix (k_leaf k))).

(* ---- the rest of a line: blanks, a comment, the line end ------------------------------------------------------------ *)
Lemma line_trailing_read i sp i' : line_trailing i = Ok sp i' ->
  exists w c j le, ws_tok w /\ opt_comment c /\ splits i (w ++ c) j /\ sp = (pos i, pos j) /\ splits j le i' /\ lend le (rest i').
Proof.
  rewrite line_trailing_unfold. intro H. apply bind_inv in H as (a & j1 & H1 & H).
  pose proof H1 as H1'. apply span_inv in H1' as (o & E1 & Esp). apply bind_inv in E1 as (w & k1 & Ew & E1). apply ws_sound in Ew as (Hw & S1 & _).
  apply bind_inv in H as (u & j2 & H2 & H). apply line_ending_sound in H2 as (le & S3 & Hl). apply ret_inv in H as [-> ->].
  assert (G : exists c, opt_comment c /\ splits k1 c j1).
  { apply opt_inv in E1 as [(x & _ & E1) | (_ & -> & _)].
    - apply comment_sound in E1 as (c & Hc & Sc & _). exists c. split; [right; exact Hc|exact Sc].
    - exists []. split; [left; reflexivity|apply splits_nil]. }
  destruct G as (c & Hc & Sc). exists w, c, j1, le. split; [exact Hw|]. split; [exact Hc|]. split; [exact (splits_trans _ _ _ _ _ S1 Sc)|]. auto.
Qed.

Lemma ttbl_unfold s items d im dt p sp :
  ttbl s (Tbl items d im dt p sp) = Tbl (map (tkv s) items) (tdecor s d) im dt p None.
Proof.
  cbn [ttbl]. f_equal; try (induction items as [|[k it] tl IH]; [reflexivity|cbn [map tkv fst snd]; rewrite <- IH; reflexivity]).
Qed.
(* ---- the lines stored in a table, each with the text it prints as ------------------------------------------- *)
(* provided its value is plain (decided on the finished tree) *)
Definition line_out (s : bytes) (kv : key * value) (ol : bytes) : Prop :=
  vplain (snd kv) = true -> forall z, kv_line s kv ++ z = ol ++ z.

Lemma concat_outs s kvl outs : Forall2 (line_out s) kvl outs -> Forall (fun kv : key * value => vplain (snd kv) = true) kvl ->
  flat_map (kv_line s) kvl = concat outs.
Proof.
  induction 1 as [|kv ol kvl outs H _ IH]; intro Hp; [reflexivity|]. inversion Hp as [|? ? Hv Hp']; subst.
  cbn [flat_map concat]. rewrite (H Hv), (IH Hp'). reflexivity.
Qed.

(* ---- the trivia read since the last item: on_ws keeps its span in st_trailing ----------------------------------- *)
Definition pending (s : bytes) (st : pstate) (i i0 : input) (pend : bytes) : Prop :=
  st_trailing st = Some (pos i0, pos i) /\ isrc s i0 /\ splits i0 pend i.

Lemma pending_on_ws s st i i0 pend w i1 :
  pending s st i i0 pend -> splits i w i1 -> pending s (on_ws st (pos i, pos i1)) i1 i0 (pend ++ w).
Proof.
  intros (Ht & Hi0 & Sp) Sw. unfold pending, on_ws. cbn [st_trailing]. rewrite Ht. cbn [fst snd].
  split; [reflexivity|]. split; [exact Hi0|exact (splits_trans _ _ _ _ _ Sp Sw)].
Qed.

Lemma pending_first s st j w i1 : st_trailing st = None -> isrc s j -> splits j w i1 -> pending s (on_ws st (pos j, pos i1)) i1 j w.
Proof. intros Ht Hj Sw. unfold pending, on_ws. cbn [st_trailing]. rewrite Ht. auto. Qed.

Lemma pending_prints s st i i0 pend : pending s st i i0 pend ->
  raw_encode (traw s (match st_trailing st with Some sp => raw_with_span sp | None => REmpty end)) [] = ncr pend.
Proof. intros (-> & Hi0 & Sp). apply (span_prints s i0 pend i [] Hi0 Sp). Qed.

Lemma raw_span_with_span a b : raw_span (raw_with_span (a, b)) = if (a =? b)%N then None else Some (a, b).
Proof. unfold raw_with_span. cbn [fst snd]. destruct (a =? b)%N; reflexivity. Qed.

(* ---- one iteration of the document loop ------------------------------------------------------------------------ *)
(* the LF written for the end of a line: always for a real newline; at the end of the text only
   after a statement *)
Definition le_out (l : list astmt) (le : bytes) : bytes := match le with [] => stmt_lf l | _ => [x0a] end.

Lemma newline_le_out l le : newline_tok le -> le_out l le = [x0a].
Proof. intros [-> | ->]; reflexivity. Qed.

Lemma lend_le_out_stmt st le r : lend le r -> le_out [st] le = [x0a].
Proof. intros [H | [-> _]]; [apply newline_le_out, H|reflexivity]. Qed.

Lemma ncr_lend le r : lend le r -> ncr le = le_out [] le.
Proof. intros [[-> | ->] | [-> _]]; reflexivity. Qed.

Lemma header_item_text arr t p w c : table_tok arr t p -> ws_tok w -> opt_comment c ->
  item_text (t ++ w ++ c) [if arr then SArrHeader p else SHeader p] (t ++ w ++ c).
Proof. destruct arr; intros; [apply itx_arr|apply itx_std]; assumption. Qed.

Lemma parse_ws_exact st i st1 i1 : parse_ws st i = Ok st1 i1 ->
  exists w, ws_tok w /\ splits i w i1 /\ st1 = on_ws st (pos i, pos i1).
Proof.
  unfold parse_ws. intro H. apply pmap_inv in H as (sp & H & ->). pose proof H as H'. apply span_inv in H' as (u & _ & ->).
  apply span_ws_inv in H as (w & Hw & S & _). eauto.
Qed.

(* `line_read` (Proofs/DocumentOps.v) with the text that the comment, the line end and the blanks are made of *)
Inductive line_toks (st : pstate) (i j : input) : pstate -> Prop :=
| lt_comment c le : comment_tok c -> splits i (c ++ le) j -> lend le (rest j) -> line_toks st i j (on_ws st (pos i, pos j))
| lt_blank nl : newline_tok nl -> splits i nl j -> line_toks st i j (on_ws st (pos i, pos j))
| lt_header arr kp sp tr st' :
    header_text arr i = Ok ((kp, sp), tr) j -> on_header arr st kp tr sp = COk st' -> line_toks st i j st'
| lt_keyval p k v st' :
    parse_keyval i = Ok (p, (k, v)) j -> on_keyval_sp st p k v = COk st' -> line_toks st i j st'.

Lemma doc_line_toks st i st1 i1 : doc_line st i = Ok st1 i1 ->
  exists st0 j w, line_toks st i j st0 /\ ws_tok w /\ splits j w i1 /\ st1 = on_ws st0 (pos j, pos i1).
Proof.
  intro H. apply doc_line_read in H as (st0 & j & sp & Hr & Ew & ->).
  pose proof Ew as Ew'. apply span_inv in Ew' as (u & _ & ->). apply span_ws_inv in Ew as (w & Hw & Sw & _).
  exists st0, j, w. split; [|auto]. destruct Hr as [sp H2|sp H2|arr kp sp tr st' H2 Eo|p k v st' H2 Eo].
  - pose proof H2 as H2'. apply span_inv in H2' as (u0 & _ & ->).
    apply span_inv in H2 as (u1 & H2 & _). apply bind_inv in H2 as (x & k1 & F1 & F2).
    apply comment_sound in F1 as (c & Hc & S1 & _). apply context_inv, line_ending_sound in F2 as (le & S2 & Hl).
    apply (lt_comment st i j c le Hc (splits_trans _ _ _ _ _ S1 S2) Hl).
  - pose proof H2 as H2'. apply span_inv in H2' as (u0 & _ & ->).
    apply span_inv in H2 as (u1 & H2 & _). apply newline_sound in H2 as (nl & Hn & S1). apply (lt_blank st i j nl Hn S1).
  - apply (lt_header st i j arr kp sp tr st'); [destruct arr; exact H2|exact Eo].
  - apply (lt_keyval st i j p k v st' H2 Eo).
Qed.

(* if the end of the text ended the line, nothing follows *)
Lemma lend_then_ws le j w i1 : lend le (rest j) -> splits j w i1 -> newline_tok le \/ (le = [] /\ w = [] /\ rest i1 = []).
Proof.
  intros [Hn | [-> Hr]] [R _]; [left; exact Hn|right]. rewrite Hr in R. destruct w; [|discriminate]. auto.
Qed.

(* ---- the loop ------------------------------------------------------------------------------------------------- *)
(* `step st i st1 i1 l o`: what a proof carries from the state before a stretch of lines making the
   statements l, with normal form o, to the state after it.  If every line is such a step, the loop
   reads complete lines and is one. *)
Section Loop.
  Variable s : bytes.
  Variable step : pstate -> input -> pstate -> input -> list astmt -> bytes -> Prop.
  Hypothesis step_nil : forall st i, step st i st i [] [].
  Hypothesis step_trans : forall st i st1 i1 st2 i2 l1 o1 l2 o2,
    step st i st1 i1 l1 o1 -> step st1 i1 st2 i2 l2 o2 -> step st i st2 i2 (l1 ++ l2) (o1 ++ o2).
  Hypothesis step_line : forall st i st1 i1, isrc s i -> doc_line st i = Ok st1 i1 ->
    exists w0 e l o le w,
      ws_tok w0 /\ item_text e l o /\ ws_tok w /\ splits i (w0 ++ e ++ le ++ w) i1
      /\ (newline_tok le \/ (le = [] /\ w = [] /\ rest i1 = [])) /\ isrc s i1
      /\ step st i st1 i1 l (w0 ++ o ++ le_out l le ++ w).

  Lemma doc_loop_lines : forall fuel st i st' i', isrc s i -> doc_loop fuel st i = Ok st' i' ->
    exists t l o, splits i t i' /\ lines_text t l o /\ isrc s i' /\ step st i st' i' l o.
  Proof.
    induction fuel as [|f IH]; intros st i st' i' Hi H; [discriminate|]. cbn [doc_loop] in H.
    destruct (doc_line st i) as [st1 i1|e j|e j|x] eqn:E; try discriminate.
    - destruct (Nat.eqb (length (rest i1)) (length (rest i))); [discriminate|].
      destruct (step_line st i st1 i1 Hi E) as (w0 & e & l & o & le & w & Hw0 & He & Hw & Sp & Hle & Hi1 & Hok).
      destruct Hle as [Hn | (-> & -> & R1)].
      + destruct (IH st1 i1 st' i' Hi1 H) as (t & l' & o' & St & Hlt & Hi' & Hok').
        exists ((w0 ++ e ++ le ++ w) ++ t), (l ++ l'), ((w0 ++ o ++ le_out l le ++ w) ++ o').
        split; [exact (splits_trans _ _ _ _ _ Sp St)|]. split; [|split; [exact Hi'|exact (step_trans _ _ _ _ _ _ _ _ _ _ Hok Hok')]].
        rewrite (newline_le_out l le Hn).
        replace ((w0 ++ e ++ le ++ w) ++ t) with (w0 ++ e ++ le ++ w ++ t) by (rewrite <- !app_assoc; reflexivity).
        replace ((w0 ++ o ++ [x0a] ++ w) ++ o') with (w0 ++ o ++ [x0a] ++ w ++ o') by (rewrite <- !app_assoc; reflexivity).
        apply ltx_cons; assumption.
      + destruct (doc_loop_at_end f st1 i1 st' i' R1 H) as [-> ->].
        exists (w0 ++ e), l, (w0 ++ o ++ stmt_lf l). rewrite !app_nil_r in Sp. split; [exact Sp|]. split; [apply ltx_last; assumption|].
        split; [exact Hi1|]. cbn [le_out] in Hok. rewrite app_nil_r in Hok. exact Hok.
    - injection H as <- <-. exists [], [], []. split; [apply splits_nil|]. split; [apply ltx_nil|]. split; [exact Hi|apply step_nil].
  Qed.
End Loop.

(* ---- the document: a byte-order mark, blanks, the loop to the end of the text, the last section attached ----------- *)
Lemma parse_document_read s d : parse_document s = POk d ->
  exists bm i1 w0 i2 stl i3 st',
    splits (new_input s) bm i1 /\ s = bm ++ strip_bom s /\ ws_tok w0 /\ splits i1 w0 i2 /\ strip_bom s = w0 ++ rest i2
    /\ doc_loop (S (length (rest i2))) (on_ws state_new (pos i1, pos i2)) i2 = Ok stl i3 /\ rest i3 = []
    /\ finalize_table stl = COk st'
    /\ d = mkDoc (st_root st') (match st_trailing st' with Some sp => raw_with_span sp | None => REmpty end).
Proof.
  intro H. destruct (parse_document_inv s d H) as (ob & i1 & stw & i2 & stl & i3 & st' & Eb & Ew & El & Rend & Ef & Hd). symmetry in Hd.
  apply parse_ws_exact in Ew as (w0 & Hw0 & Sw & ->).
  exists (if ob then Document.bom else []), i1, w0, i2, stl, i3, st'.
  assert (Sb : splits (new_input s) (if ob then Document.bom else []) i1 /\ s = (if ob then Document.bom else []) ++ strip_bom s
               /\ strip_bom s = rest i1).
  { apply opt_inv in Eb as [(x & -> & Eb) | (-> & -> & (e & j & F))].
    - apply lit_inv in Eb as [_ Sb]. split; [exact Sb|]. destruct Sb as [R _]. cbn [new_input rest] in R.
      destruct (strip_bom_cases s) as [(r & Er & ->) | [Hn _]]; [|exfalso; apply (Hn _ R)].
      split; [exact Er|]. rewrite Er in R. apply app_inv_head in R. exact R.
    - split; [apply splits_nil|]. destruct (strip_bom_cases s) as [(r & Er & _) | [_ ->]]; [|auto].
      exfalso. unfold lit in F. cbn [new_input rest] in F.
      destruct (strip_prefix Document.bom s) eqn:Q; [discriminate|].
      assert (Q' : strip_prefix Document.bom s = Some r) by (apply strip_prefix_spec; exact Er). congruence. }
  destruct Sb as (Sb & Es & Er). split; [exact Sb|]. split; [exact Es|]. split; [exact Hw0|]. split; [exact Sw|].
  split; [rewrite Er; apply Sw|]. split; [exact El|]. split; [exact Rend|]. split; [exact Ef|symmetry; exact Hd].
Qed.

