(* Proofs/AccessorsSpec.v — what the read API of Model/Accessors.v answers, for EVERY item / value
   (no hypothesis on how the tree was obtained): the kinds are exclusive and exhaustive, every downcast
   answers exactly on its own kind with the stored scalar, the Item-level duplicates are the value's own,
   type names and flags say the same thing, and lookups hand out what iteration hands out. *)
From TV Require Import Base.Prelude Model.Tree Extract.Show Model.Accessors.
Require Import String Lia.

Definition count_true (l : list bool) : nat := List.length (filter (fun b => b) l).

Definition value_scalar (v : value) : option scalar := match v with VScalar s _ _ => Some s | _ => None end.

(* ---- kinds: exactly one ---------------------------------------------------------------- *)
Lemma value_kind_exclusive v :
  count_true [value_is_str v; value_is_integer v; value_is_float v; value_is_bool v; value_is_datetime v;
              value_is_array v; value_is_inline_table v] = 1.
Proof. destruct v as [[s|z|f|b|d] r dc|vals tr tc dc sp|items pr im dt dc sp]; reflexivity. Qed.

Lemma item_kind_exclusive it :
  count_true [item_is_none it; item_is_value it; item_is_table it; item_is_aot it] = 1.
Proof. destruct it as [|v|t|ts sp]; reflexivity. Qed.

(* the seven value flags of an ITEM: exactly one on a value, none otherwise *)
Lemma item_value_flags it :
  count_true [item_is_str it; item_is_integer it; item_is_float it; item_is_bool it; item_is_datetime it;
              item_is_array it; item_is_inline_table it] = (if item_is_value it then 1 else 0).
Proof.
  destruct it as [|v|t|ts sp]; try reflexivity.
  destruct v as [[s|z|f|b|d] r dc|vals tr tc dc sp|items pr im dt dc sp]; reflexivity.
Qed.

(* ---- downcasts: the stored scalar, on its own kind only ---------------------------------- *)
Lemma value_as_str_spec v s : value_as_str v = Some s <-> value_scalar v = Some (SString s).
Proof. destruct v as [[x|z|f|b|d] r dc|vals tr tc dc sp|items pr im dt dc sp]; cbn; split; intro H; try discriminate; inversion H; reflexivity. Qed.
Lemma value_as_integer_spec v z : value_as_integer v = Some z <-> value_scalar v = Some (SInt z).
Proof. destruct v as [[x|y|f|b|d] r dc|vals tr tc dc sp|items pr im dt dc sp]; cbn; split; intro H; try discriminate; inversion H; reflexivity. Qed.
Lemma value_as_float_spec v f : value_as_float v = Some f <-> value_scalar v = Some (SFloat f).
Proof. destruct v as [[x|y|g|b|d] r dc|vals tr tc dc sp|items pr im dt dc sp]; cbn; split; intro H; try discriminate; inversion H; reflexivity. Qed.
Lemma value_as_bool_spec v b : value_as_bool v = Some b <-> value_scalar v = Some (SBool b).
Proof. destruct v as [[x|y|g|c|d] r dc|vals tr tc dc sp|items pr im dt dc sp]; cbn; split; intro H; try discriminate; inversion H; reflexivity. Qed.
Lemma value_as_datetime_spec v d : value_as_datetime v = Some d <-> value_scalar v = Some (SDatetime d).
Proof. destruct v as [[x|y|g|c|e] r dc|vals tr tc dc sp|items pr im dt dc sp]; cbn; split; intro H; try discriminate; inversion H; reflexivity. Qed.
Lemma value_as_array_spec v vals :
  value_as_array v = Some vals <-> exists tr tc dc sp, v = VArray vals tr tc dc sp.
Proof.
  destruct v as [x r dc|vs tr tc dc sp|items pr im dt dc sp]; cbn; split; intro H; try discriminate.
  - destruct H as (? & ? & ? & ? & H); discriminate.
  - inversion H; subst; eauto.
  - destruct H as (? & ? & ? & ? & H); inversion H; reflexivity.
  - destruct H as (? & ? & ? & ? & H); discriminate.
Qed.
Lemma value_as_inline_table_spec v items :
  value_as_inline_table v = Some items <-> exists pr im dt dc sp, v = VInline items pr im dt dc sp.
Proof.
  destruct v as [x r dc|vs tr tc dc sp|its pr im dt dc sp]; cbn; split; intro H; try discriminate.
  - destruct H as (? & ? & ? & ? & ? & H); discriminate.
  - destruct H as (? & ? & ? & ? & ? & H); discriminate.
  - inversion H; subst; eauto 6.
  - destruct H as (? & ? & ? & ? & ? & H); inversion H; reflexivity.
Qed.

(* reading a scalar through the five downcasts alone gives the stored scalar (what `doc`'s tree= prints) *)
Definition read_scalar (v : value) : option scalar :=
  match value_as_str v, value_as_integer v, value_as_float v, value_as_bool v, value_as_datetime v with
  | Some s, None, None, None, None => Some (SString s)
  | None, Some z, None, None, None => Some (SInt z)
  | None, None, Some f, None, None => Some (SFloat f)
  | None, None, None, Some b, None => Some (SBool b)
  | None, None, None, None, Some d => Some (SDatetime d)
  | _, _, _, _, _ => None
  end.
Lemma read_scalar_spec v : read_scalar v = value_scalar v.
Proof. destruct v as [[x|y|g|c|e] r dc|vals tr tc dc sp|items pr im dt dc sp]; reflexivity. Qed.

(* ---- the Item-level duplicates ----------------------------------------------------------- *)
Lemma item_downcasts_value v :
  item_as_str (IValue v) = value_as_str v /\ item_as_integer (IValue v) = value_as_integer v
  /\ item_as_float (IValue v) = value_as_float v /\ item_as_bool (IValue v) = value_as_bool v
  /\ item_as_datetime (IValue v) = value_as_datetime v /\ item_as_array (IValue v) = value_as_array v
  /\ item_as_inline_table (IValue v) = value_as_inline_table v /\ item_type_name (IValue v) = value_type_name v.
Proof. repeat split. Qed.
Lemma item_downcasts_other it :
  item_is_value it = false ->
  item_as_str it = None /\ item_as_integer it = None /\ item_as_float it = None /\ item_as_bool it = None
  /\ item_as_datetime it = None /\ item_as_array it = None /\ item_as_inline_table it = None.
Proof. destruct it as [|v|t|ts sp]; cbn; intro H; try discriminate; repeat split. Qed.
Lemma item_table_like_spec it :
  item_is_table_like it = orb (item_is_table it) (item_is_inline_table it).
Proof.
  destruct it as [|v|t|ts sp]; reflexivity.
Qed.

(* ---- type names and flags say the same thing --------------------------------------------- *)
Lemma value_type_name_flags v :
  (value_type_name v = str "string" <-> value_is_str v = true)
  /\ (value_type_name v = str "integer" <-> value_is_integer v = true)
  /\ (value_type_name v = str "float" <-> value_is_float v = true)
  /\ (value_type_name v = str "boolean" <-> value_is_bool v = true)
  /\ (value_type_name v = str "datetime" <-> value_is_datetime v = true)
  /\ (value_type_name v = str "array" <-> value_is_array v = true)
  /\ (value_type_name v = str "inline table" <-> value_is_inline_table v = true).
Proof.
  destruct v as [[x|y|g|c|e] r dc|vals tr tc dc sp|items pr im dt dc sp];
    vm_compute; repeat split; intro H; try reflexivity; try discriminate H.
Qed.
Lemma item_type_name_flags it :
  (item_type_name it = str "none" <-> item_is_none it = true)
  /\ (item_type_name it = str "table" <-> item_is_table it = true)
  /\ (item_type_name it = str "array of tables" <-> item_is_aot it = true).
Proof.
  destruct it as [|v|t|ts sp]; try (vm_compute; repeat split; intro H; try reflexivity; discriminate H).
  destruct v as [[x|y|g|c|e] r dc|vals tr tc dc sp|items pr im dt dc sp];
    vm_compute; repeat split; intro H; try reflexivity; try discriminate H.
Qed.

(* ---- lookups hand out what iteration hands out -------------------------------------------- *)
Definition keys_of (items : list (key * item)) : list bytes := map (fun kv => k_key (fst kv)) items.

Lemma kv_get_first_in items k it :
  NoDup (keys_of items) -> In (k, it) items -> exists k', kv_get items (k_key k) = Some (k', it) /\ k_key k' = k_key k.
Proof.
  induction items as [|[k0 it0] tl IH]; intros Hnd Hin; [destruct Hin|].
  cbn [kv_get]. inversion Hnd as [|? ? Hnotin Hnd']; subst.
  destruct Hin as [Heq|Hin].
  - inversion Heq; subst. cbn [fst]. rewrite bytes_eqb_refl. eauto.
  - destruct (bytes_eqb (k_key k0) (k_key k)) eqn:E.
    + apply bytes_eqb_eq in E. exfalso. apply Hnotin. cbn [fst] in *. rewrite E.
      unfold keys_of. apply (in_map (fun kv : key * item => k_key (fst kv)) tl (k, it)). exact Hin.
    + apply IH; assumption.
Qed.

(* Table::get / Item::get(key) on a table: every entry iteration shows (placeholders are not shown) is found under its key *)
Lemma table_get_iter items k it :
  NoDup (keys_of items) -> In (k, it) items -> item_is_none it = false -> table_get items (k_key k) = Some it.
Proof.
  intros Hnd Hin Hn. unfold table_get. destruct (kv_get_first_in items k it Hnd Hin) as (k' & -> & _). rewrite Hn. reflexivity.
Qed.
Lemma index_str_table t k it :
  NoDup (keys_of (t_items t)) -> In (k, it) (t_items t) -> item_is_none it = false ->
  index_str (k_key k) (ITable t) = Some it.
Proof. intros. cbn [index_str]. apply table_get_iter; assumption. Qed.
(* ... and a placeholder is never handed out *)
Lemma table_get_not_none items k it : table_get items k = Some it -> item_is_none it = false.
Proof.
  unfold table_get. destruct (kv_get items k) as [[k' v]|]; [|discriminate].
  destruct (item_is_none v) eqn:E; [discriminate|]. intro H; inversion H; subst; exact E.
Qed.
Lemma index_str_not_none k it x : index_str k it = Some x -> item_is_none x = false.
Proof.
  destruct it as [|v|t|ts sp]; cbn [index_str]; try discriminate.
  - destruct (value_as_inline_table v) as [items|]; cbn [and_then]; [|discriminate].
    destruct (kv_get items k) as [[k' y]|]; cbn [option_map and_then snd]; [|discriminate].
    destruct (item_is_none y) eqn:E; cbn [negb]; [discriminate|]. intro H; inversion H; subst; exact E.
  - apply table_get_not_none.
Qed.
(* InlineTable::get / Item::get(key) on an inline table *)
Lemma inline_get_iter items k v :
  NoDup (keys_of items) -> In (k, IValue v) items -> inline_get items (k_key k) = Some v.
Proof.
  intros Hnd Hin. unfold inline_get. destruct (kv_get_first_in items k (IValue v) Hnd Hin) as (k' & -> & _). reflexivity.
Qed.
(* Array::get / Item::get(i): the i-th stored element, None one past the end *)
Lemma array_get_nth vals i v : nth_error vals i = Some (IValue v) -> array_get vals i = Some v.
Proof. unfold array_get. intros ->. reflexivity. Qed.
Lemma array_get_end vals : array_get vals (array_len vals) = None.
Proof. unfold array_get, array_len. replace (nth_error vals (List.length vals)) with (@None item); [reflexivity|]. symmetry. apply nth_error_None. lia. Qed.
Lemma index_usize_aot ts sp i : index_usize i (IAot ts sp) = option_map ITable (nth_error ts i).
Proof. reflexivity. Qed.
Lemma index_usize_aot_end ts sp : index_usize (List.length ts) (IAot ts sp) = None.
Proof. cbn [index_usize]. replace (nth_error ts (List.length ts)) with (@None tbl); [reflexivity|]. symmetry. apply nth_error_None. lia. Qed.
Lemma index_usize_array vals tr tc dc sp i : index_usize i (IValue (VArray vals tr tc dc sp)) = nth_error vals i.
Proof. reflexivity. Qed.
Lemma index_usize_other it i : item_is_aot it = false -> item_is_array it = false -> index_usize i it = None.
Proof.
  destruct it as [|v|t|ts sp]; cbn; intros H1 H2; try reflexivity; try discriminate.
  destruct v as [x r dc|vals tr tc dc sp|items pr im dt dc sp]; try reflexivity. discriminate.
Qed.
(* doc["k"] is the root table's lookup *)
Lemma doc_index_root t k : doc_index (ITable t) k = table_get (t_items t) k.
Proof. reflexivity. Qed.

(* ---- len / is_empty: what the table-like view counts is what its iteration shows ------------------------------------ *)
Lemma table_len_no_placeholder items :
  Forall (fun kv => item_is_none (snd kv) = false) items -> table_len items = List.length items.
Proof.
  unfold table_len. induction items as [|kv tl IH]; intro H; [reflexivity|].
  inversion H as [|? ? Hx Htl]; subst. cbn [filter]. rewrite Hx. cbn [negb List.length]. f_equal. apply IH. exact Htl.
Qed.
Lemma tablelike_len_spec it :
  tablelike_len it = match it with
                     | ITable t => Some (table_len (t_items t))
                     | IValue (VInline items _ _ _ _ _) => Some (inline_len items)
                     | _ => None
                     end.
Proof. destruct it as [|v|t|ts sp]; try reflexivity. destruct v; reflexivity. Qed.
Lemma tablelike_len_iff it : is_some (tablelike_len it) = item_is_table_like it.
Proof. destruct it as [|v|t|ts sp]; try reflexivity. destruct v; reflexivity. Qed.
