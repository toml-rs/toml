(* Proofs/PrintBackKey.v — C03 tiling for keys (key.rs `key`): the decor and reprs recorded for a
   key path, printed by encode_key_path, are exactly the text `key` consumed — blanks before the
   first key, around every dot and after the last key included. *)
From TV Require Import Base.Prelude Base.Winnow Spec.Lex Spec.Syntax.
From TV Require Import Model.Tree Model.Parse Model.Encode.
From TV Require Import Proofs.LexEquivBase Proofs.LexEquivTrivia Proofs.LexEquivStrings Proofs.GrammarSep Proofs.LexEquivKey
                       Proofs.TilingDefs Proofs.PrintBackBase Proofs.PrintBackEnc.
Require Import Lia ZifyBool ZifyN ZifyNat.

(* ---- key.rs `key`: parts separated by dots, then fix_key_path moves the outer blanks to the leaf decor ----------- *)
Lemma key_read i kp i' : key_ i = Ok kp i' ->
  exists a i1 l, key_part i = Ok a i1 /\ seps key_part dot_sep i1 l i' /\ fix_key_path (a :: l) = Some kp.
Proof.
  intro H. rewrite key_unfold in H. apply bind_inv in H as (path & j & H1 & H).
  apply try_map_inv in H1 as (path0 & H1 & Hc). unfold key_check in Hc.
  destruct (check_depth (length path0)); [discriminate|]. injection Hc as ->.
  apply context_inv in H1. apply (separated1_inv _ _ _ _ _ key_part_shrinking dot_sep_shrinking) in H1 as (a & i1 & l & -> & Ea & R).
  destruct (fix_key_path (a :: l)) as [p|] eqn:Ef; [|discriminate]. apply ret_inv in H as [-> ->]. exists a, i1, l. auto.
Qed.

(* one part with the exact spans it records *)
Lemma key_part_exact i a i1 : key_part i = Ok a i1 ->
  exists j1 j2 w0 t w, ws_tok w0 /\ simple_key_tok t (k_key a) /\ ws_tok w
    /\ splits i w0 j1 /\ splits j1 t j2 /\ splits j2 w i1
    /\ a = mkKey (k_key a) (Some (raw_with_span (pos j1, pos j2))) decor_default
                 (decor_new (raw_with_span (pos i, pos j1)) (raw_with_span (pos j2, pos i1))).
Proof.
  unfold key_part. intro H.
  apply bind_inv in H as (pre & j1 & H1 & H). apply span_inv in H1 as (w0 & H1 & Epre). apply ws_sound in H1 as (Hw0 & S1 & _).
  apply bind_inv in H as ([rw k] & j2 & H2 & H). apply simple_key_sound in H2 as (t & Ht & S2 & Erw).
  apply bind_inv in H as (suf & j3 & H3 & H). apply span_inv in H3 as (w & H3 & Esuf). apply ws_sound in H3 as (Hw & S3 & _).
  apply ret_inv in H as [-> ->]. exists j1, j2, w0, t, w. cbn [k_key]. subst. auto 10.
Qed.

(* one part of a key path as key_part builds it: blanks, key text, blanks *)
Definition kpart (s : bytes) (a : key) (w0 t w : bytes) : Prop :=
  k_leaf a = decor_default /\
  exists r p q, k_repr a = Some r /\ k_dotted a = decor_new p q
    /\ repr_str (toraw s (Some r)) = Some t
    /\ (forall d, raw_encode (traw s p) d = w0) /\ (forall d, raw_encode (traw s q) d = w).

Lemma key_part_render s i a i1 : isrc s i -> key_part i = Ok a i1 ->
  exists w0 t w, ws_tok w0 /\ simple_key_tok t (k_key a) /\ ws_tok w /\ splits i (w0 ++ t ++ w) i1
                 /\ kpart s a w0 t w /\ isrc s i1.
Proof.
  intros Hi H. destruct (key_part_exact i a i1 H) as (j1 & j2 & w0 & t & w & Hw0 & Ht & Hw & S1 & S2 & S3 & Ea).
  destruct (isrc_splits s i w0 j1 Hi S1) as [Hi1 _]. destruct (isrc_splits s j1 t j2 Hi1 S2) as [Hi2 _].
  destruct (isrc_splits s j2 w i1 Hi2 S3) as [Hi3 _].
  exists w0, t, w. split; [exact Hw0|]. split; [exact Ht|]. split; [exact Hw|].
  split; [exact (splits_trans _ _ _ _ _ S1 (splits_trans _ _ _ _ _ S2 S3))|]. split; [|exact Hi3]. rewrite Ea.
  split; [reflexivity|]. eexists _, _, _. cbn [k_repr k_dotted].
  split; [reflexivity|]. split; [reflexivity|]. split; [apply (span_repr s j1 t j2 Hi1 S2)|]. split; intro d.
  - rewrite (span_prints s i w0 j1 d Hi S1). apply ncr_ws, Hw0.
  - rewrite (span_prints s j2 w i1 d Hi2 S3). apply ncr_ws, Hw.
Qed.

(* the text of a list of parts: the first one bare, the others behind a dot *)
Definition part_text (x : bytes * bytes * bytes) : bytes := fst (fst x) ++ snd (fst x) ++ snd x.
Definition dotted_text (l : list (bytes * bytes * bytes)) : bytes := flat_map (fun x => [x2e] ++ part_text x) l.
Definition path_text (l : list (bytes * bytes * bytes)) : bytes :=
  match l with [] => [] | x :: tl => part_text x ++ dotted_text tl end.

Definition kparts (s : bytes) : list key -> list (bytes * bytes * bytes) -> Prop :=
  Forall2 (fun a x => kpart s a (fst (fst x)) (snd (fst x)) (snd x)).

Lemma key_seps_render s i l i' : isrc s i -> seps key_part dot_sep i l i' ->
  exists xs, kparts s l xs /\ splits i (dotted_text xs) i' /\ isrc s i'
             /\ Forall2 (fun a x => simple_key_tok (snd (fst x)) (k_key a) /\ ws_tok (fst (fst x)) /\ ws_tok (snd x)) l xs.
Proof.
  intros Hi R. induction R as [i F|i x i1 E Hlt F|i x i1 a i2 l i3 E Hlt E2 Hle R IH].
  - exists []. split; [constructor|]. split; [apply splits_nil|]. split; [exact Hi|constructor].
  - exists []. split; [constructor|]. split; [apply splits_nil|]. split; [exact Hi|constructor].
  - apply byte_inv in E as [_ S1]. destruct (isrc_splits s i [x2e] i1 Hi S1) as [Hi1 _].
    destruct (key_part_render s i1 a i2 Hi1 E2) as (w0 & t & w & Hw0 & Ht & Hw & S2 & Hk & Hi2).
    destruct (IH Hi2) as (xs & Hxs & S3 & Hi3 & Hg).
    exists ((w0, t, w) :: xs). split; [constructor; [exact Hk|exact Hxs]|]. split; [|split; [exact Hi3|constructor; auto]].
    cbn [dotted_text flat_map]. unfold part_text at 1. cbn [fst snd].
    pose proof (splits_trans _ _ _ _ _ S1 (splits_trans _ _ _ _ _ S2 S3)) as S. rewrite <- !app_assoc in *. exact S.
Qed.

(* ---- encode_key_path on what fix_key_path returns ----------------------------------------------------- *)
Lemma tkey_fields s a : tkey s a = mkKey (k_key a) (toraw s (k_repr a)) (tdecor s (k_leaf a)) (tdecor s (k_dotted a)).
Proof. reflexivity. Qed.

Lemma loop_mid s leaf dflt init xs rest_ :
  kparts s init xs -> rest_ <> [] ->
  encode_key_path_loop leaf dflt false (map (tkey s) init ++ rest_) = dotted_text xs ++ encode_key_path_loop leaf dflt false rest_.
Proof.
  intros H Hne. induction H as [|a x init xs (_ & r & p & q & Er & Ed & Hr & Hp & Hq) _ IH]; [reflexivity|].
  cbn [map app encode_key_path_loop].
  assert (Hl : match map (tkey s) init ++ rest_ with [] => true | _ => false end = false).
  { destruct (map (tkey s) init); [destruct rest_; [congruence|reflexivity]|reflexivity]. }
  rewrite Hl. rewrite IH. cbn [dotted_text flat_map]. unfold part_text at 1.
  unfold key_display_repr, decor_prefix, decor_suffix. rewrite tkey_fields. cbn [k_repr k_dotted]. rewrite Er, Ed. cbn [tdecor decor_new d_prefix d_suffix toraw].
  cbn [toraw] in Hr. rewrite Hr, Hp, Hq. rewrite <- !app_assoc. reflexivity.
Qed.

Lemma fix_key_path_render s path xs p dflt :
  kparts s path xs -> fix_key_path path = Some p -> encode_key_path (map (tkey s) p) dflt = path_text xs.
Proof.
  intros Hk Hf. destruct Hk as [|first x tl xs (_ & r1 & p1 & q1 & Er1 & Ed1 & Hr1 & Hp1 & Hq1) Htl]; [discriminate|].
  unfold fix_key_path in Hf. rewrite Ed1 in Hf. cbn [decor_new d_prefix] in Hf.
  set (first' := set_dotted_prefix first REmpty) in *.
  destruct tl as [|y tl0].
  - (* a single key *)
    inversion Htl; subst. cbn [rev app] in Hf. unfold first' in Hf. cbn [set_dotted_prefix k_dotted d_suffix] in Hf.
    rewrite Ed1 in Hf. cbn [decor_new d_suffix] in Hf. injection Hf as <-.
    cbn [map rev app]. unfold encode_key_path. cbn [rev app map encode_key_path_loop].
    unfold key_display_repr, decor_prefix, decor_suffix. rewrite !tkey_fields.
    cbn [set_leaf set_dotted_suffix set_dotted_prefix k_key k_repr k_leaf k_dotted tdecor decor_new d_prefix d_suffix toraw].
    rewrite Er1. cbn [toraw] in *. rewrite Hr1, Hp1, Hq1. unfold path_text, part_text. cbn [dotted_text flat_map fst snd]. rewrite !app_nil_r. reflexivity.
  - (* several keys: tl = init ++ [last] *)
    destruct (exists_last (l := y :: tl0) ltac:(discriminate)) as (init & last & Etl). rewrite Etl in *.
    apply Forall2_app_inv_l in Htl as (xi & xl & Hinit & Hlast & ->).
    inversion Hlast as [|? xlast ? ? (_ & rn & pn & qn & Ern & Edn & Hrn & Hpn & Hqn) Hnil]; subst. inversion Hnil; subst.
    change (first' :: init ++ [last]) with ((first' :: init) ++ [last]) in Hf. rewrite rev_app_distr in Hf. cbn [rev app] in Hf.
    rewrite Edn in Hf. cbn [decor_new d_suffix] in Hf. injection Hf as <-.
    rewrite rev_app_distr. cbn [rev app]. rewrite rev_involutive.
    set (last'' := set_leaf (set_dotted_suffix last REmpty) (decor_new p1 qn)).
    cbn [app map]. rewrite map_app. cbn [map]. unfold encode_key_path.
    change (tkey s first' :: map (tkey s) init ++ [tkey s last'']) with ((tkey s first' :: map (tkey s) init) ++ [tkey s last'']).
    rewrite rev_app_distr. cbn [rev app]. cbn [encode_key_path_loop].
    assert (Hl : match map (tkey s) init ++ [tkey s last''] with [] => true | _ => false end = false)
      by (destruct (map (tkey s) init); reflexivity).
    rewrite Hl. rewrite (loop_mid s _ dflt init xi [tkey s last''] Hinit ltac:(discriminate)).
    cbn [encode_key_path_loop]. unfold key_display_repr, decor_prefix, decor_suffix. rewrite !tkey_fields. unfold last'', first'.
    cbn [set_leaf set_dotted_suffix set_dotted_prefix k_key k_repr k_leaf k_dotted tdecor decor_new d_prefix d_suffix toraw].
    rewrite Er1, Ern, Ed1, Edn. cbn [decor_new d_prefix d_suffix toraw tdecor] in *. rewrite Hr1, Hrn, Hp1, Hq1, Hpn, Hqn.
    unfold path_text. unfold dotted_text. rewrite flat_map_app. cbn [flat_map]. unfold part_text. cbn [fst snd].
    rewrite <- !app_assoc. rewrite !app_nil_r. reflexivity.
Qed.

(* ---- key ---------------------------------------------------------------------------------------------- *)
Theorem key_render s i kp i' : isrc s i -> key_ i = Ok kp i' ->
  exists w1 t w2, ws_tok w1 /\ key_tok t (map k_key kp) /\ ws_tok w2 /\ splits i (w1 ++ t ++ w2) i' /\ isrc s i'
                  /\ (forall dflt, encode_key_path (map (tkey s) kp) dflt = w1 ++ t ++ w2).
Proof.
  intros Hi H. destruct (key_read i kp i' H) as (a & i1 & l & Ea & R & Ef).
  destruct (key_part_render s i a i1 Hi Ea) as (w0 & t & w & Hw0 & Ht & Hw & S1 & Hk & Hi1).
  destruct (key_seps_render s i1 l i' Hi1 R) as (xs & Hxs & S2 & Hj & Hg).
  pose proof (fix_key_path_keys _ _ Ef) as Hkeys.
  assert (Henc : forall dflt, encode_key_path (map (tkey s) kp) dflt = path_text ((w0, t, w) :: xs)).
  { intro dflt. apply (fix_key_path_render s (a :: l) ((w0, t, w) :: xs) kp dflt); [constructor; assumption|exact Ef]. }
  (* regroup the blanks: w0 (t w . w' t' ...) w_last *)
  assert (G : forall t0 k0 w0' xs0 l0, simple_key_tok t0 k0 -> ws_tok w0' ->
            Forall2 (fun a x => simple_key_tok (snd (fst x)) (k_key a) /\ ws_tok (fst (fst x)) /\ ws_tok (snd x)) l0 xs0 ->
            exists kt wl, key_tok kt (k0 :: map k_key l0) /\ ws_tok wl /\ t0 ++ w0' ++ dotted_text xs0 = kt ++ wl).
  { intros t0 k0 w0' xs0 l0 Hs0 Hw0' HF. revert t0 k0 w0' Hs0 Hw0'.
    induction HF as [|a0 x0 l0 xs0 (Hs & Hwa & Hwb) _ IH]; intros t0 k0 w0' Hs0 Hw0'.
    - exists t0, w0'. split; [apply key_one; assumption|]. split; [assumption|]. cbn [dotted_text flat_map]. rewrite app_nil_r. reflexivity.
    - destruct x0 as [[wa ta] wb]. cbn [fst snd] in *. destruct (IH ta (k_key a0) wb Hs Hwb) as (kt & wl & Hkt & Hwl & E).
      exists (t0 ++ w0' ++ [x2e] ++ wa ++ kt), wl. split; [cbn [map]; apply key_dot; assumption|]. split; [exact Hwl|].
      cbn [dotted_text flat_map]. unfold part_text at 1. cbn [fst snd]. fold (dotted_text xs0). rewrite <- !app_assoc.
      do 4 f_equal. exact E. }
  destruct (G t (k_key a) w xs l Ht Hw Hg) as (kt & wl & Hkt & Hwl & E).
  exists w0, kt, wl. split; [exact Hw0|]. split; [rewrite Hkeys; exact Hkt|]. split; [exact Hwl|].
  assert (Etext : path_text ((w0, t, w) :: xs) = w0 ++ kt ++ wl).
  { unfold path_text, part_text. cbn [fst snd]. rewrite <- !app_assoc. f_equal. exact E. }
  split; [|split; [exact Hj|intro dflt; rewrite Henc; exact Etext]].
  rewrite <- Etext. unfold path_text, part_text. cbn [fst snd]. exact (splits_trans _ _ _ _ _ S1 S2).
Qed.

Lemma key_single s i kp i' : isrc s i -> key_ i = Ok kp i' -> length kp = 1 ->
  exists j1 j2 w0 kt w1 k,
    kp = [k] /\ ws_tok w0 /\ simple_key_tok kt (k_key k) /\ ws_tok w1
    /\ splits i w0 j1 /\ splits j1 kt j2 /\ splits j2 w1 i'
    /\ k_repr k = Some (raw_with_span (pos j1, pos j2))
    /\ k_leaf k = decor_new (raw_with_span (pos i, pos j1)) (raw_with_span (pos j2, pos i')).
Proof.
  intros Hi H Hlen. destruct (key_read i kp i' H) as (a & j & l & Ea & R & Ef).
  pose proof (fix_key_path_keys _ _ Ef) as Hk. apply (f_equal (@length bytes)) in Hk. rewrite !map_length, Hlen in Hk.
  destruct l; [|discriminate Hk]. assert (Ej : j = i') by (inversion R; reflexivity). subst j.
  destruct (key_part_exact i a i' Ea) as (j1 & j2 & w0 & t & w & Hw0 & Ht & Hw & S1 & S2 & S3 & Ea').
  unfold fix_key_path in Ef. rewrite Ea' in Ef. cbn in Ef. injection Ef as <-.
  exists j1, j2, w0, t, w. eexists. split; [reflexivity|]. cbn [k_key k_repr k_leaf set_leaf]. auto 10.
Qed.

(* key_render with the leading blanks marked off, and for a plain key the spans it records, in terms
   of the same pieces *)
Lemma key_render_plain s i kp i' : isrc s i -> key_ i = Ok kp i' ->
  exists j0 w0 kt w1, ws_tok w0 /\ key_tok kt (map k_key kp) /\ ws_tok w1 /\ splits i w0 j0 /\ splits j0 (kt ++ w1) i' /\ isrc s i'
    /\ (length kp = 1 -> exists k jb, kp = [k] /\ splits j0 kt jb /\ splits jb w1 i'
          /\ k_repr k = Some (raw_with_span (pos j0, pos jb))
          /\ k_leaf k = decor_new (raw_with_span (pos i, pos j0)) (raw_with_span (pos jb, pos i'))).
Proof.
  intros Hi H. destruct (Nat.eq_dec (length kp) 1) as [Hl | Hl].
  - destruct (key_single s i kp i' Hi H Hl) as (j0 & jb & w0 & kt & w1 & k & -> & Hw0 & Hkt & Hw1 & S0 & S1 & S2 & Er & El).
    exists j0, w0, kt, w1. split; [exact Hw0|]. split; [apply key_one, Hkt|]. split; [exact Hw1|]. split; [exact S0|].
    split; [exact (splits_trans _ _ _ _ _ S1 S2)|]. split.
    + destruct (isrc_splits s i w0 j0 Hi S0) as [H0 _]. apply (isrc_splits s j0 (kt ++ w1) i' H0 (splits_trans _ _ _ _ _ S1 S2)).
    + intros _. exists k, jb. auto 6.
  - destruct (key_render s i kp i' Hi H) as (w0 & kt & w1 & Hw0 & Hkt & Hw1 & S & Hi' & _).
    destruct (splits_app_inv i w0 (kt ++ w1) i' S) as (j0 & S0 & S1).
    exists j0, w0, kt, w1. repeat (split; [assumption|]). intro; contradiction.
Qed.
