(* Proofs/SpannedRT.v — C14, serde half: wrapping a type in Spanned<..> at any positions is transparent.
   For a well-formed tree all of whose nodes and keys have spans, toml_edit's deserializer at the
   wrapped type (de_s) and at the erased type (de_value on the stripped tree) go in lock step: both fail,
   or both succeed and the values agree after erasing the spans. *)
From TV Require Import Base.Prelude Spec.SerdeData Model.De Model.SerdeSpanned Proofs.SerdeRTEq Proofs.RoutesRel
  Proofs.RoutesTwins Proofs.SpannedRTBase.
From TV Require Import Base.ListFacts.

Definition ER (x : xval) (v : sval) : Prop := erase_val x = v.
Definition ERp (p : xval * xval) (q : sval * sval) : Prop := erase_val (fst p) = fst q /\ erase_val (snd p) = snd q.

(* ---- unfolding equations of de_s ---- *)
Lemma ds_plain t s : de_s (YPlain t) s = rmap XPlain (de_value t (strip s)). Proof. reflexivity. Qed.
Lemma ds_spanned t s : de_s (YSpanned t) s =
  match span_of s with Some (a, b) => rmap (XSpanned a b) (de_s t s) | None => Err EDe end.
Proof. reflexivity. Qed.
Lemma ds_opt t s : de_s (YOpt t) s = rmap XSome (de_s t s). Proof. reflexivity. Qed.
Lemma ds_newtype n t s : de_s (YNewtype n t) s = rmap XNewtype (de_s t s). Proof. reflexivity. Qed.
Lemma ds_seq t sp xs : de_s (YSeq t) (NArr sp xs) = rmap XSeq (mapM (de_s t) xs). Proof. reflexivity. Qed.
Lemma ds_tuple ts sp xs : de_s (YTuple ts) (NArr sp xs) = rmap (fun r => XSeq (fst r)) (gde_pos de_s ts xs). Proof. reflexivity. Qed.
Lemma ds_tuple_struct n ts sp xs : de_s (YTupleStruct n ts) (NArr sp xs) = rmap (fun r => XSeq (fst r)) (gde_pos de_s ts xs).
Proof. reflexivity. Qed.
Definition sde_entries (kt vt : sty) (es : list (bytes * ospan * stree)) : result (list (xval * xval)) :=
  mapM (fun e => rbind (de_key_s kt (fst (fst e)) (snd (fst e))) (fun k => rmap (fun v => (k, v)) (de_s vt (snd e)))) es.
Lemma ds_map kt vt sp es : de_s (YMap kt vt) (NTab sp es) = rmap (fun ps => XMap (xmap_of_pairs ps)) (sde_entries kt vt es).
Proof. reflexivity. Qed.
Lemma ds_struct_tab n fs sp es : de_s (YStruct n fs) (NTab sp es) =
  if private_name n then Err EUnmodelled else rmap XRec (sde_struct_map de_s fs es).
Proof. reflexivity. Qed.
Lemma ds_struct_arr n fs sp xs : de_s (YStruct n fs) (NArr sp xs) =
  if private_name n then Err EUnmodelled else rmap (fun r => XRec (fst r)) (gde_pos (fun ft x => de_s (snd ft) x) fs xs).
Proof. reflexivity. Qed.
Definition s_unit_only (i : nat) (var : svariant) : result xval :=
  match var with YVUnit => Ok (XVariant i (XPlain SUnit)) | _ => Err EDe end.
Lemma ds_enum_str n vs sp k : de_s (YEnum n vs) (NLeaf sp (VStr k)) = find_name s_unit_only (Err EDe) k vs 0.
Proof. reflexivity. Qed.
Lemma ds_enum_tab n vs sp k ksp y : de_s (YEnum n vs) (NTab sp [(k, ksp, y)]) =
  find_name (fun i var => rmap (XVariant i) (de_payload_s var y)) (Err EDe) k vs 0.
Proof. reflexivity. Qed.
Lemma dps_newtype t y : de_payload_s (YVNewtype t) y = de_s t y. Proof. reflexivity. Qed.
Lemma dps_tuple_arr ts sp xs : de_payload_s (YVTuple ts) (NArr sp xs) =
  if Nat.eqb (length xs) (length ts) then rmap (fun r => XSeq (fst r)) (gde_pos de_s ts xs) else Err EDe.
Proof. reflexivity. Qed.
Lemma dps_tuple_tab ts sp es : de_payload_s (YVTuple ts) (NTab sp es) =
  match sindex_keys 0 es with
  | Some xs => if Nat.eqb (length xs) (length ts) then rmap (fun r => XSeq (fst r)) (gde_pos de_s ts xs) else Err EDe
  | None => Err EDe end.
Proof. reflexivity. Qed.
Lemma dps_struct_tab fs sp es : de_payload_s (YVStruct fs) (NTab sp es) =
  if sstruct_keys_ok (map fst fs) es then rmap XRec (sde_struct_map de_s fs es) else Err EDe.
Proof. reflexivity. Qed.
Lemma dps_struct_arr fs sp xs : de_payload_s (YVStruct fs) (NArr sp xs) =
  rmap (fun r => XRec (fst r)) (gde_pos (fun ft x => de_s (snd ft) x) fs xs).
Proof. reflexivity. Qed.

Definition erase_fields (fs : list (bytes * sty)) : list (bytes * ty) := map (fun ft => (fst ft, erase_ty (snd ft))) fs.
Lemma erase_fields_names fs : map fst (erase_fields fs) = map fst fs.
Proof. unfold erase_fields. rewrite map_map. reflexivity. Qed.

Lemma et_tuple ts : erase_ty (YTuple ts) = TTuple (map erase_ty ts). Proof. reflexivity. Qed.
Lemma et_struct n fs : erase_ty (YStruct n fs) = TStruct n (erase_fields fs). Proof. reflexivity. Qed.
Lemma et_enum n vs : erase_ty (YEnum n vs) = TEnum n (map (fun nv => (fst nv, erase_variant (snd nv))) vs). Proof. reflexivity. Qed.

(* ---- find_name ---- *)
Lemma find_name_map {A B R} (f : nat -> B -> R) d k (g : A -> B) l : forall j,
  find_name f d k (map (fun nv => (fst nv, g (snd nv))) l) j = find_name (fun i a => f i (g a)) d k l j.
Proof.
  induction l as [|[n a] l IH]; intro j; simpl; [reflexivity|]. destruct (bytes_eqb n k); [reflexivity|apply IH].
Qed.

(* ---- keys ---- *)
(* KeyDeserializer under ANY nesting of Spanned / newtype wrappers: the wrapped key type and the erased one go in
   lock step (KeyDeserializer::deserialize_struct hands the SAME deserializer to the inner type) *)
Theorem key_lockstep : forall kt k a b,
  lockstep ER (de_key_s kt k (Some (a, b))) (de_key (erase_ty kt) k).
Proof.
  induction kt using sty_ind2 with (Q := fun _ => True); try exact I; intros k a b; try (simpl; exact I).
  - (* YPlain *) simpl. destruct (de_key t k); simpl; [reflexivity|exact I].
  - (* YSpanned *) simpl de_key_s. change (erase_ty (YSpanned kt)) with (erase_ty kt).
    pose proof (IHkt k a b) as H. destruct (de_key_s kt k (Some (a, b))), (de_key (erase_ty kt) k); simpl in *; try contradiction; [|exact I].
    unfold ER in *. simpl. exact H.
  - (* YStruct *) simpl. destruct (private_name n); exact I.
  - (* YNewtype *) simpl de_key_s. change (erase_ty (YNewtype n kt)) with (TNewtype n (erase_ty kt)). rewrite dk_newtype.
    apply (rr_rmap False False ER ER); [apply IHkt|]. intros x v E. unfold ER in *. simpl. rewrite E. reflexivity.
  - (* YEnum *) simpl de_key_s. rewrite et_enum, dk_enum, find_name_map.
    apply rr_find_name. apply Forall_forall. intros [vn var] _ i. simpl. destruct var; simpl; try exact I. reflexivity.
Qed.

(* ---- maps: equal keys are equal up to spans ---- *)
Lemma xmap_insert_erase k v acc :
  map (fun p => (erase_val (fst p), erase_val (snd p))) (xmap_insert k v acc)
  = smap_insert (erase_val k) (erase_val v) (map (fun p => (erase_val (fst p), erase_val (snd p))) acc).
Proof.
  induction acc as [|[k' v'] acc IH]; simpl; [reflexivity|]. unfold xval_beq.
  destruct (sval_beq (erase_val k') (erase_val k)); simpl; [reflexivity|]. rewrite IH. reflexivity.
Qed.

Lemma xmap_of_pairs_erase ps :
  map (fun p => (erase_val (fst p), erase_val (snd p))) (xmap_of_pairs ps)
  = smap_of_pairs (map (fun p => (erase_val (fst p), erase_val (snd p))) ps).
Proof.
  unfold xmap_of_pairs, smap_of_pairs.
  assert (G : forall acc, map (fun p => (erase_val (fst p), erase_val (snd p))) (fold_left (fun acc p => xmap_insert (fst p) (snd p) acc) ps acc)
              = fold_left (fun acc p => smap_insert (fst p) (snd p) acc) (map (fun p => (erase_val (fst p), erase_val (snd p))) ps)
                          (map (fun p => (erase_val (fst p), erase_val (snd p))) acc)).
  { induction ps as [|[k v] ps IH]; intro acc; simpl; [reflexivity|]. rewrite IH, xmap_insert_erase. reflexivity. }
  apply (G []).
Qed.

Lemma Forall2_ERp_map ps qs : Forall2 ERp ps qs -> map (fun p => (erase_val (fst p), erase_val (snd p))) ps = qs.
Proof. induction 1 as [|[a b] [c d] ps qs [H1 H2] _ IH]; simpl in *; [reflexivity|]. subst. reflexivity. Qed.

(* ---- the constructors on both sides ---- *)
Lemma lock_wrap (C : xval -> xval) (C' : sval -> sval) r r' :
  (forall x, erase_val (C x) = C' (erase_val x)) -> lockstep ER r r' -> lockstep ER (rmap C r) (rmap C' r').
Proof. intros HC H. apply (rr_rmap False False ER ER _ _ _ _ H). intros x v E. unfold ER in *. rewrite HC, E. reflexivity. Qed.

Lemma lock_list {X Y} (R : X -> Y -> Prop) (sel : X -> list xval) (sel' : Y -> list sval)
      (C : list xval -> xval) (C' : list sval -> sval) r r' :
  (forall l, erase_val (C l) = C' (map erase_val l)) -> (forall a b, R a b -> Forall2 ER (sel a) (sel' b)) ->
  lockstep R r r' -> lockstep ER (rmap (fun a => C (sel a)) r) (rmap (fun b => C' (sel' b)) r').
Proof.
  intros HC HR H. apply (rr_rmap False False R ER _ _ _ _ H). intros a b Hab. unfold ER.
  rewrite HC, (Forall2_map_eq erase_val id _ _ (HR a b Hab)), map_id. reflexivity.
Qed.

(* what the inductions below assume of a component type *)
Definition locks (t : sty) : Prop :=
  forall s, all_spans s = true -> lockstep ER (de_s t s) (de_value (erase_ty t) (strip s)).

(* ---- positional visitors ---- *)
Section PosLock.
  Context {A B : Type}.
  Variable pa : A -> sty.
  Variable pb : B -> ty.
  Variable conv : A -> B.
  Hypothesis Hconv : forall a, pb (conv a) = erase_ty (pa a).
  Variable C : list xval -> xval.
  Variable C' : list sval -> sval.
  Hypothesis HC : forall l, erase_val (C l) = C' (map erase_val l).

  Lemma pos_lockstep (l : list A) xs :
    Forall (fun a => locks (pa a)) l -> Forall (fun x => all_spans x = true) xs ->
    lockstep ER (rmap (fun r => C (fst r)) (gde_pos (fun a x => de_s (pa a) x) l xs))
            (rmap (fun r => C' (fst r)) (de_pos de_value pb (map conv l) (map strip xs))).
  Proof.
    intros Hl Hx. apply (lock_list (fun r r' => Forall2 ER (fst r) (fst r')) fst fst C C' _ _ HC (fun _ _ H => H)).
    revert xs Hx. induction Hl as [|a l Ha _ IH]; intros xs Hx; simpl; [constructor|].
    destruct Hx as [|x xs Hx0 Hx]; simpl; [exact I|].
    rewrite Hconv. apply (rr_rbind False False ER); [apply Ha; exact Hx0|]. intros v v' Hv.
    apply (rr_rbind False False (fun r r' => Forall2 ER (fst r) (fst r'))); [apply IH; exact Hx|].
    intros r r' Hr. simpl. constructor; assumption.
  Qed.
End PosLock.

Definition tuple_lockstep := pos_lockstep (fun t : sty => t) (fun t : ty => t) erase_ty (fun _ => eq_refl).
Definition fields_pos_lockstep :=
  pos_lockstep (fun ft : bytes * sty => snd ft) (fun ft : bytes * ty => snd ft) (fun ft => (fst ft, erase_ty (snd ft))) (fun _ => eq_refl).

(* ---- struct fields ---- *)
Lemma missing_lockstep t : bad_field t = false -> lockstep ER (missing_field_s t) (missing_field (erase_ty t)).
Proof.
  intro H. destruct t; simpl; try exact I.
  - destruct t; simpl; try exact I. reflexivity.
  - simpl in H. change (erase_ty (YSpanned t)) with (erase_ty t) in H. destruct (erase_ty t); try discriminate H; exact I.
  - reflexivity.
Qed.

Definition field_hyp (ft : bytes * sty) : Prop := bad_field (snd ft) = false /\ locks (snd ft).
Definition spanned_entries (es : list (bytes * ospan * stree)) : Prop :=
  Forall (fun e => has_span (snd (fst e)) = true /\ all_spans (snd e) = true) es.

Lemma stab_get_spans k es x : spanned_entries es -> stab_get k es = Some x -> all_spans x = true.
Proof.
  induction 1 as [|[[k' sp] y] es [_ Hy] _ IH]; simpl; [discriminate|].
  destruct (bytes_eqb k' k); [intro E; injection E as <-; exact Hy|exact IH].
Qed.

Lemma fields_map_lockstep es : spanned_entries es -> forall fs seen, Forall field_hyp fs ->
  lockstep (Forall2 ER) (sde_fields_map de_s es seen fs) (de_fields_map de_value (strip_entries es) seen (erase_fields fs)).
Proof.
  intros Hes. induction fs as [|[f t] fs IH]; intros seen Hfs; simpl; [constructor|].
  inversion Hfs as [|? ? [Hbad Ht] Hfs']; subst. simpl in Hbad, Ht.
  apply (rr_rbind False False ER).
  - destruct (mem_bytes f seen); [apply missing_lockstep; exact Hbad|].
    rewrite tab_get_strip. destruct (stab_get f es) as [x|] eqn:G; simpl; [|apply missing_lockstep; exact Hbad].
    apply Ht. eapply stab_get_spans; eassumption.
  - intros v v' Hv. apply (rr_rbind False False (Forall2 ER)); [apply IH; exact Hfs'|]. intros l l' Hl. simpl. constructor; assumption.
Qed.

Lemma struct_map_lockstep fs es : spanned_entries es -> Forall field_hyp fs ->
  lockstep ER (rmap XRec (sde_struct_map de_s fs es)) (rmap SRec (de_struct_map de_value (erase_fields fs) (strip_entries es))).
Proof.
  intros Hes Hfs. apply (lock_list (Forall2 ER) (fun l => l) (fun l => l) XRec SRec _ _ (fun _ => eq_refl) (fun _ _ H => H)).
  unfold sde_struct_map, de_struct_map. rewrite dup_hit_strip, erase_fields_names.
  destruct (sdup_field_hit (map fst fs) es); [exact I|]. apply fields_map_lockstep; assumption.
Qed.

Lemma sindex_keys_spans es : spanned_entries es ->
  forall i xs, sindex_keys i es = Some xs -> Forall (fun x => all_spans x = true) xs.
Proof.
  induction 1 as [|[[k sp] y] es [_ Hy] _ IH]; intros i xs H; simpl in H.
  - injection H as <-. constructor.
  - destruct (parse_usize k) as [j|]; [|discriminate H]. destruct (j =? i)%N; [|discriminate H].
    destruct (sindex_keys (i + 1) es) as [xs'|] eqn:E; [|discriminate H]. simpl in H. injection H as <-.
    constructor; [exact Hy|eapply IH; exact E].
Qed.

(* ---- the theorem ---- *)
Definition LOCK (t : sty) : Prop := sty_ok t = true -> locks t.
Definition LOCKV (var : svariant) : Prop :=
  svariant_ok var = true -> forall y, all_spans y = true -> lockstep ER (de_payload_s var y) (de_payload (erase_variant var) (strip y)).

Lemma lock_Forall ts : Forall LOCK ts -> forallb sty_ok ts = true -> Forall locks ts.
Proof.
  intros H Hb. rewrite forallb_forall in Hb. rewrite Forall_forall in *. intros t Hin. exact (H t Hin (Hb t Hin)).
Qed.
Lemma lock_fields (fs : list (bytes * sty)) : Forall (fun ft => LOCK (snd ft)) fs ->
  forallb (fun ft => negb (bad_field (snd ft)) && sty_ok (snd ft)) fs = true -> Forall field_hyp fs.
Proof.
  intros H Hb. rewrite forallb_forall in Hb. rewrite Forall_forall in *. intros ft Hin.
  specialize (Hb ft Hin). apply andb_true_iff in Hb as [Hb1 Hb2]. apply negb_true_iff in Hb1.
  split; [exact Hb1|exact (H ft Hin Hb2)].
Qed.
Lemma field_hyp_pos (fs : list (bytes * sty)) : Forall field_hyp fs -> Forall (fun ft => locks (snd ft)) fs.
Proof. apply Forall_impl. intros ft [_ H]. exact H. Qed.

(* a scalar shown to a visitor that wants a sequence or a map: refused on both sides *)
Ltac leaf_err Hl := apply all_spans_leaf in Hl; match goal with |- context [NLeaf _ ?x] => destruct x; try discriminate Hl; simpl; try exact I end.

Theorem spanned_lockstep : forall t, LOCK t.
Proof.
  induction t using sty_ind2 with (Q := LOCKV); unfold LOCK, LOCKV, locks in *.
  - (* YPlain *) intros _ s _. rewrite ds_plain. simpl erase_ty. destruct (de_value t (strip s)); simpl; [reflexivity|exact I].
  - (* YSpanned *) intros Hok s Hs. rewrite ds_spanned.
    destruct (has_span_some _ (all_spans_here s Hs)) as ([a b] & ->). change (erase_ty (YSpanned t)) with (erase_ty t).
    pose proof (IHt Hok s Hs) as H. destruct (de_s t s), (de_value (erase_ty t) (strip s)); simpl in *; auto.
  - (* YOpt *) intros Hok s Hs. rewrite ds_opt. change (erase_ty (YOpt t)) with (TOpt (erase_ty t)). rewrite dv_opt.
    apply (lock_wrap XSome SSome _ _ (fun _ => eq_refl)). apply IHt; assumption.
  - (* YSeq *) intros Hok s Hs. change (erase_ty (YSeq t)) with (TSeq (erase_ty t)).
    destruct s as [sp x|sp xs|sp es]; [leaf_err Hs| |exact I].
    rewrite ds_seq, strip_arr, dv_seq.
    apply (lock_list (Forall2 ER) (fun l => l) (fun l => l) XSeq SSeq _ _ (fun _ => eq_refl) (fun _ _ H => H)).
    apply rr_mapM_map. eapply Forall_impl; [|exact (proj2 (all_spans_arr _ _ Hs))]. intros x Hx. apply IHt; assumption.
  - (* YTuple *) intros Hok s Hs. rewrite et_tuple. simpl in Hok.
    destruct s as [sp x|sp xs|sp es]; [leaf_err Hs| |exact I].
    rewrite ds_tuple, strip_arr, dv_tuple.
    exact (tuple_lockstep XSeq SSeq (fun _ => eq_refl) ts xs (lock_Forall ts H Hok) (proj2 (all_spans_arr _ _ Hs))).
  - (* YMap *) intros Hok s Hs. simpl in Hok. apply andb_true_iff in Hok as [_ Hv].
    change (erase_ty (YMap t1 t2)) with (TMap (erase_ty t1) (erase_ty t2)).
    destruct s as [sp x|sp xs|sp es]; [leaf_err Hs|exact I|].
    rewrite ds_map, strip_tab, dv_map. apply (rr_rmap False False (Forall2 ERp) ER).
    + unfold sde_entries, de_entries, strip_entries. apply rr_mapM_map. eapply Forall_impl; [|exact (proj2 (all_spans_tab _ _ Hs))].
      intros [[k ksp] y] [Hksp Hy]. simpl in *. destruct (has_span_some _ Hksp) as ([a b] & ->).
      apply (rr_rbind False False ER); [apply key_lockstep|]. intros kx kv Ek.
      apply (rr_rmap False False ER ERp); [apply IHt2; assumption|]. intros vx vv Ev. split; assumption.
    + intros ps qs Hpq. unfold ER. simpl. rewrite xmap_of_pairs_erase. rewrite (Forall2_ERp_map _ _ Hpq). reflexivity.
  - (* YStruct *) intros Hok s Hs. rewrite et_struct. simpl in Hok. pose proof (lock_fields fs H Hok) as Hfs.
    destruct s as [sp x|sp xs|sp es].
    + apply all_spans_leaf in Hs. simpl. destruct (private_name n); [exact I|]. destruct x; try discriminate Hs; simpl; exact I.
    + rewrite ds_struct_arr, strip_arr, dv_struct_arr. destruct (private_name n); [exact I|].
      exact (fields_pos_lockstep XRec SRec (fun _ => eq_refl) fs xs (field_hyp_pos fs Hfs) (proj2 (all_spans_arr _ _ Hs))).
    + rewrite ds_struct_tab, strip_tab, dv_struct. destruct (private_name n); [exact I|].
      exact (struct_map_lockstep fs es (proj2 (all_spans_tab _ _ Hs)) Hfs).
  - (* YNewtype *) intros Hok s Hs. rewrite ds_newtype. change (erase_ty (YNewtype n t)) with (TNewtype n (erase_ty t)). rewrite dv_newtype.
    apply (lock_wrap XNewtype SNewtype _ _ (fun _ => eq_refl)). apply IHt; assumption.
  - (* YTupleStruct *) intros Hok s Hs. change (erase_ty (YTupleStruct n ts)) with (TTupleStruct n (map erase_ty ts)). simpl in Hok.
    destruct s as [sp x|sp xs|sp es]; [leaf_err Hs| |exact I].
    rewrite ds_tuple_struct, strip_arr, dv_tuple_struct.
    exact (tuple_lockstep XSeq SSeq (fun _ => eq_refl) ts xs (lock_Forall ts H Hok) (proj2 (all_spans_arr _ _ Hs))).
  - (* YEnum *) intros Hok s Hs. rewrite et_enum. simpl in Hok. destruct s as [sp x|sp xs|sp es]; [| exact I|].
    + apply all_spans_leaf in Hs. destruct x; try discriminate Hs; try (simpl; exact I).
      rewrite ds_enum_str. simpl strip. rewrite dv_enum_str, find_name_map. apply rr_find_name.
      apply Forall_forall. intros [vn var] _ i. simpl. destruct var; simpl; try exact I. reflexivity.
    + destruct es as [|[[k ksp] y] [|e2 es]]; try (simpl; exact I).
      rewrite ds_enum_tab. simpl strip. rewrite dv_enum_tab, find_name_map.
      destruct (all_spans_tab _ _ Hs) as [_ Hes]. inversion Hes as [|? ? [_ Hy] _]; subst. simpl in Hy.
      apply rr_find_name. rewrite forallb_forall in Hok. rewrite Forall_forall in *. intros [vn var] Hin i. simpl.
      apply (lock_wrap (XVariant i) (SVariant i) _ _ (fun _ => eq_refl)). exact (H (vn, var) Hin (Hok (vn, var) Hin) y Hy).
  - (* YVUnit *) intros _ y Hy. simpl. rewrite (empty_strip y Hy). destruct (sempty_container y); simpl; [reflexivity|exact I].
  - (* YVNewtype *) intros Hok y Hy. rewrite dps_newtype. simpl erase_variant. rewrite dp_newtype. apply IHt; assumption.
  - (* YVTuple *) intros Hok y Hy. simpl in Hok. change (erase_variant (YVTuple ts)) with (VTuple (map erase_ty ts)).
    destruct y as [sp x|sp xs|sp es]; [leaf_err Hy| |].
    + rewrite dps_tuple_arr, strip_arr, dp_tuple. rewrite !map_length. destruct (Nat.eqb (length xs) (length ts)); [|exact I].
      exact (tuple_lockstep XSeq SSeq (fun _ => eq_refl) ts xs (lock_Forall ts H Hok) (proj2 (all_spans_arr _ _ Hy))).
    + rewrite dps_tuple_tab, strip_tab, dp_tuple_tab, index_keys_strip.
      destruct (sindex_keys 0 es) as [xs|] eqn:E; simpl; [|exact I].
      rewrite !map_length. destruct (Nat.eqb (length xs) (length ts)); [|exact I].
      exact (tuple_lockstep XSeq SSeq (fun _ => eq_refl) ts xs (lock_Forall ts H Hok)
                            (sindex_keys_spans es (proj2 (all_spans_tab _ _ Hy)) 0 xs E)).
  - (* YVStruct *) intros Hok y Hy. simpl in Hok. pose proof (lock_fields fs H Hok) as Hfs.
    change (erase_variant (YVStruct fs)) with (VStruct (erase_fields fs)).
    destruct y as [sp x|sp xs|sp es].
    + apply all_spans_leaf in Hy. destruct x; try discriminate Hy; simpl; exact I.
    + rewrite dps_struct_arr, strip_arr, dp_struct_arr.
      exact (fields_pos_lockstep XRec SRec (fun _ => eq_refl) fs xs (field_hyp_pos fs Hfs) (proj2 (all_spans_arr _ _ Hy))).
    + rewrite dps_struct_tab, strip_tab, dp_struct, erase_fields_names, keys_ok_strip.
      destruct (sstruct_keys_ok (map fst fs) es); [|exact I].
      exact (struct_map_lockstep fs es (proj2 (all_spans_tab _ _ Hy)) Hfs).
Qed.
