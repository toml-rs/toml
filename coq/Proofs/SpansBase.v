(* Proofs/SpansBase.v — C14: the window judgement and its combinator lemmas.

     winP Q p   whenever p i = Ok a i', and [lo, hi] is ANY window enclosing what p consumed
                (lo <= pos i, pos i' <= hi), then Q lo hi a.
   With `mono p` (Proofs/NoPanicBase.v: pos i <= pos i', the consumed text is a prefix) this is the
   statement "the spans recorded by p point into the text p consumed".  The window is universally
   quantified so that results compose under sequencing without a separate monotonicity argument.

   Also: the `*_in lo hi` predicates are `forallb (sp_in lo hi)` over the collected spans (hence monotone
   in the window), and the laws of the association-list operations for `items_in`. *)
From TV Require Import Base.Prelude Base.Winnow.
From TV Require Import Model.Tree.
From TV Require Import Proofs.NoPanicBase Proofs.SpansDefs Proofs.KvFacts.
Require Import Lia ZifyBool ZifyN ZifyNat.
From TV Require Export Base.ListFacts Base.WinnowFacts.

(* lia on a goal whose context is full of boolean facts about trees: keep the arithmetic only *)
Ltac nlia :=
  repeat match goal with
         | H : ?T |- _ =>
           lazymatch T with
           | (_ <= _)%N => fail
           | (_ < _)%N => fail
           | @eq N _ _ => fail
           | context [N.leb] => fail
           | _ => clear H
           end
         end; lia.

Definition winP {A} (Q : N -> N -> A -> Prop) (p : parser A) : Prop :=
  forall lo hi i a i', p i = Ok a i' -> (lo <= pos i)%N -> (pos i' <= hi)%N -> Q lo hi a.

Lemma mono_le {A} (p : parser A) i a i' : mono p -> p i = Ok a i' -> (pos i <= pos i')%N.
Proof. intros H E. eapply ext_pos_le, H, E. Qed.


(* ---- winP: combinators ------------------------------------------------------------------------------ *)
Lemma winP_weaken {A} (Q R : N -> N -> A -> Prop) (p : parser A) :
  (forall lo hi a, Q lo hi a -> R lo hi a) -> winP Q p -> winP R p.
Proof. intros H Hp lo hi i a i' E L U. eapply H, Hp; eauto. Qed.
Lemma winP_and {A} (Q R : N -> N -> A -> Prop) (p : parser A) :
  winP Q p -> winP R p -> winP (fun lo hi a => Q lo hi a /\ R lo hi a) p.
Proof. intros H1 H2 lo hi i a i' E L U. split; [eapply H1|eapply H2]; eauto. Qed.
Lemma winP_true {A} (p : parser A) : winP (fun _ _ _ => True) p.
Proof. intros lo hi i a i' _ _ _. exact I. Qed.
Lemma winP_valP {A} (V : A -> Prop) (p : parser A) : valP V p -> winP (fun _ _ a => V a) p.
Proof. intros H lo hi i a i' E _ _. eapply H, E. Qed.

Lemma winP_ret {A} (Q : N -> N -> A -> Prop) (a : A) : (forall lo hi, (lo <= hi)%N -> Q lo hi a) -> winP Q (ret a).
Proof. intros H lo hi i x i' E L U. apply ret_inv in E as [-> ->]. apply H. lia. Qed.
Lemma winP_fail {A} (Q : N -> N -> A -> Prop) : winP Q (@fail A).
Proof. intros lo hi i x i' E. discriminate. Qed.
Lemma winP_const_panic {A} (Q : N -> N -> A -> Prop) s : winP Q (fun _ : input => @Panic A s).
Proof. intros lo hi i x i' E. discriminate. Qed.

(* sequencing: the continuation may use what is known of the first result IN THE WHOLE WINDOW *)
Lemma winP_bind {A B} (Qa : N -> N -> A -> Prop) (Qb : N -> N -> B -> Prop) (p : parser A) (f : A -> parser B) :
  mono p -> (forall a, mono (f a)) -> winP Qa p ->
  (forall a, winP (fun lo hi b => Qa lo hi a -> Qb lo hi b) (f a)) -> winP Qb (bind p f).
Proof.
  intros Mp Mf Hp Hf lo hi i b i' E L U. apply bind_inv in E as (a & i1 & E1 & E2).
  pose proof (mono_le _ _ _ _ Mp E1). pose proof (mono_le _ _ _ _ (Mf a) E2).
  eapply (Hf a); [exact E2|lia|exact U|]. eapply Hp; [exact E1|exact L|lia].
Qed.
(* ... and the first result need not matter *)
Lemma winP_bind_r {A B} (Qb : N -> N -> B -> Prop) (p : parser A) (f : A -> parser B) :
  mono p -> (forall a, winP Qb (f a)) -> winP Qb (bind p f).
Proof.
  intros Mp Hf lo hi i b i' E L U. apply bind_inv in E as (a & i1 & E1 & E2).
  pose proof (mono_le _ _ _ _ Mp E1). eapply (Hf a); [exact E2|lia|exact U].
Qed.

Lemma winP_pmap {A B} (Q : N -> N -> A -> Prop) (R : N -> N -> B -> Prop) (g : A -> B) (p : parser A) :
  winP Q p -> (forall lo hi a, Q lo hi a -> R lo hi (g a)) -> winP R (pmap g p).
Proof. intros Hp Hg lo hi i b i' E L U. apply pmap_inv in E as (a & E & ->). eapply Hg, Hp; eauto. Qed.
Lemma winP_cut_err {A} (Q : N -> N -> A -> Prop) (p : parser A) : winP Q p -> winP Q (cut_err p).
Proof. intros Hp lo hi i a i' E. apply cut_err_inv in E. eapply Hp, E. Qed.
Lemma winP_context {A} (Q : N -> N -> A -> Prop) (p : parser A) : winP Q p -> winP Q (context p).
Proof. intros Hp lo hi i a i' E. apply context_inv in E. eapply Hp, E. Qed.
Lemma winP_alt {A} (Q : N -> N -> A -> Prop) (p q : parser A) : winP Q p -> winP Q q -> winP Q (alt p q).
Proof.
  intros Hp Hq lo hi i a i' E. unfold alt in E. destruct (p i) eqn:E1; try discriminate.
  - eapply Hp. rewrite E1. exact E.
  - eapply Hq, E.
Qed.
Lemma winP_try_map {A B} (Q : N -> N -> A -> Prop) (R : N -> N -> B -> Prop) (g : A -> tm B) (p : parser A) :
  winP Q p -> (forall lo hi a b, Q lo hi a -> g a = TmOk b -> R lo hi b) -> winP R (try_map g p).
Proof. intros Hp Hg lo hi i b i' E L U. apply try_map_inv in E as (a & E & G). eapply Hg; [eapply Hp; eauto|exact G]. Qed.

(* what .span() / .with_span() record lies in every window enclosing the consumed text *)
Lemma winP_span_ {A} (p : parser A) : mono p -> winP (fun lo hi sp => sp_in lo hi sp = true) (span_ p).
Proof.
  intros Mp lo hi i sp i' E L U. apply span_inv in E as (x & E & ->). pose proof (mono_le _ _ _ _ Mp E).
  unfold sp_in; cbn [fst snd]. lia.
Qed.
Lemma winP_with_span {A} (Q : N -> N -> A -> Prop) (p : parser A) :
  mono p -> winP Q p -> winP (fun lo hi x => Q lo hi (fst x) /\ sp_in lo hi (snd x) = true) (with_span p).
Proof.
  intros Mp Hp lo hi i x i' E L U. apply with_span_inv in E as (a & E & ->). pose proof (mono_le _ _ _ _ Mp E).
  cbn [fst snd]. split; [eapply Hp; eauto|]. unfold sp_in; cbn [fst snd]. lia.
Qed.

Lemma winP_diag {A} (Q : N -> N -> A -> Prop) (h : input -> parser A) :
  (forall j, winP Q (h j)) -> winP Q (fun j => h j j).
Proof. intros H lo hi i a i' E. eapply H, E. Qed.

(* separated(0.., p, sep): every element lies in the window of the whole list *)
Lemma winP_separated_loop {A Sp} (Q : N -> N -> A -> Prop) (p : parser A) (sep : parser Sp) :
  mono p -> mono sep -> winP Q p ->
  forall fuel acc lo hi i l i', separated_loop fuel p sep acc i = Ok l i' ->
    (lo <= pos i)%N -> (pos i' <= hi)%N -> Forall (Q lo hi) acc -> Forall (Q lo hi) l.
Proof.
  intros Mp Ms Hp. induction fuel as [|f IH]; intros acc lo hi i l i' H L U Ha; cbn [separated_loop] in H; [discriminate|].
  destruct (sep i) as [x i1|? ?|? ?|?] eqn:E; try discriminate.
  - destruct (Nat.eqb _ _); [discriminate|].
    destruct (p i1) as [a i2|? ?|? ?|?] eqn:E2; try discriminate.
    + pose proof (mono_le _ _ _ _ Ms E). pose proof (mono_le _ _ _ _ Mp E2).
      pose proof (ext_pos_le _ _ _ (separated_loop_mono anyb p sep Mp Ms _ _ _ _ _ H)).
      eapply IH; [exact H|lia|exact U|]. constructor; [|exact Ha]. eapply Hp; [exact E2|lia|lia].
    + inversion H; subst. apply Forall_rev, Ha.
  - inversion H; subst. apply Forall_rev, Ha.
Qed.
Lemma winP_separated1 {A Sp} (Q : N -> N -> A -> Prop) (p : parser A) (sep : parser Sp) :
  mono p -> mono sep -> winP Q p -> winP (fun lo hi l => Forall (Q lo hi) l) (separated1 p sep).
Proof.
  intros Mp Ms Hp lo hi i l i' H L U. unfold separated1 in H.
  destruct (p i) as [a i1|? ?|? ?|?] eqn:E; try discriminate.
  pose proof (mono_le _ _ _ _ Mp E).
  pose proof (ext_pos_le _ _ _ (separated_loop_mono anyb p sep Mp Ms _ _ _ _ _ H)).
  eapply winP_separated_loop; eauto; [lia|]. constructor; [|constructor]. eapply Hp; [exact E|lia|lia].
Qed.
(* separated(0.., ...) returns the empty list or what separated(1.., ...) returns *)
Lemma separated0_ok {A Sp} (p : parser A) (sep : parser Sp) i l i' :
  separated0 p sep i = Ok l i' -> l = [] \/ separated1 p sep i = Ok l i'.
Proof. unfold separated0, separated1. destruct (p i); auto. intro H; inversion H; auto. Qed.
Lemma winP_separated0 {A Sp} (Q : N -> N -> A -> Prop) (p : parser A) (sep : parser Sp) :
  mono p -> mono sep -> winP Q p -> winP (fun lo hi l => Forall (Q lo hi) l) (separated0 p sep).
Proof.
  intros Mp Ms Hp lo hi i l i' H L U. apply separated0_ok in H as [->|H]; [constructor|].
  eapply (winP_separated1 Q p sep); eauto.
Qed.

(* ---- small facts about the predicates -------------------------------------------------------------- *)
Lemma raw_with_span_in lo hi sp : sp_in lo hi sp = true -> raw_in lo hi (raw_with_span sp) = true.
Proof.
  intro H. unfold raw_with_span. destruct (fst sp =? snd sp)%N; [reflexivity|].
  unfold raw_in; cbn [raw_span osp_in]. unfold sp_in in *; cbn [fst snd]. exact H.
Qed.
Lemma raw_in_empty lo hi : raw_in lo hi REmpty = true. Proof. reflexivity. Qed.
Lemma decor_in_default lo hi : decor_in lo hi decor_default = true. Proof. reflexivity. Qed.
Lemma decor_in_new lo hi p s : raw_in lo hi p = true -> raw_in lo hi s = true -> decor_in lo hi (decor_new p s) = true.
Proof. intros H1 H2. unfold decor_in, decor_new; cbn [d_prefix d_suffix oraw_in]. rewrite H1, H2. reflexivity. Qed.

Lemma andb3 a b c : a && b && c = true <-> a = true /\ b = true /\ c = true.
Proof. destruct a, b, c; cbn; tauto. Qed.
Lemma andb4 a b c d : a && b && c && d = true <-> a = true /\ b = true /\ c = true /\ d = true.
Proof. destruct a, b, c, d; cbn; tauto. Qed.
Lemma andb3_rev a b c : a && b && c = c && (b && a).
Proof. destruct a, b, c; reflexivity. Qed.
Lemma andb4_rev a b c d : a && b && c && d = d && (c && (a && b)).
Proof. destruct a, b, c, d; reflexivity. Qed.

Lemma value_in_decorate lo hi v p s :
  value_in lo hi v = true -> raw_in lo hi p = true -> raw_in lo hi s = true ->
  value_in lo hi (value_decorate v p s) = true.
Proof.
  intros Hv Hp Hs. pose proof (decor_in_new lo hi p s Hp Hs) as D.
  destruct v as [x r d|vals tr c d sp|items pre im dt d sp]; cbn [value_decorate value_in] in *.
  - apply andb_true_iff in Hv as [H1 _]. rewrite H1, D. reflexivity.
  - apply andb4 in Hv as (H1 & H2 & _ & H4). apply andb4. auto.
  - apply andb4 in Hv as (H1 & H2 & _ & H4). apply andb4. auto.
Qed.

Lemma tbl_in_items lo hi t :
  tbl_in lo hi t = items_in lo hi (t_items t) && decor_in lo hi (t_decor t) && osp_in lo hi (t_span t).
Proof. destruct t; reflexivity. Qed.
Lemma inline_in_items lo hi items pre im dt d sp :
  value_in lo hi (VInline items pre im dt d sp)
  = items_in lo hi items && raw_in lo hi pre && decor_in lo hi d && osp_in lo hi sp.
Proof. reflexivity. Qed.
Lemma value_in_scalar lo hi s r d : value_in lo hi (VScalar s r d) = oraw_in lo hi r && decor_in lo hi d.
Proof. reflexivity. Qed.
Lemma value_in_array lo hi vals tr c d sp :
  value_in lo hi (VArray vals tr c d sp)
  = forallb (item_in lo hi) vals && raw_in lo hi tr && decor_in lo hi d && osp_in lo hi sp.
Proof. reflexivity. Qed.
Lemma item_in_inline lo hi items pre im dt d sp :
  item_in lo hi (IValue (VInline items pre im dt d sp))
  = items_in lo hi items && raw_in lo hi pre && decor_in lo hi d && osp_in lo hi sp.
Proof. reflexivity. Qed.
Lemma item_in_table lo hi t : item_in lo hi (ITable t) = tbl_in lo hi t.
Proof. reflexivity. Qed.
Lemma item_in_value lo hi v : item_in lo hi (IValue v) = value_in lo hi v.
Proof. reflexivity. Qed.
Lemma item_in_aot lo hi ts sp : item_in lo hi (IAot ts sp) = forallb (tbl_in lo hi) ts && osp_in lo hi sp.
Proof. reflexivity. Qed.

(* ---- the predicates and the collected spans ----------------------------------------------------------------- *)
Lemma forallb_flat_map {A B} (f : B -> bool) (g : A -> list B) l :
  forallb f (flat_map g l) = forallb (fun x => forallb f (g x)) l.
Proof. induction l as [|a l IH]; [reflexivity|]. cbn [flat_map forallb]. rewrite forallb_app, IH. reflexivity. Qed.
Lemma forallb_Forall_eq {A} (f g : A -> bool) l : Forall (fun x => f x = g x) l -> forallb f l = forallb g l.
Proof. induction 1 as [|x l Hx _ IH]; [reflexivity|]. cbn [forallb]. rewrite Hx, IH. reflexivity. Qed.
Lemma forallb_Forall_imp {A} (f g : A -> bool) l :
  Forall (fun x => f x = true -> g x = true) l -> forallb f l = true -> forallb g l = true.
Proof.
  induction 1 as [|x l Hx Hl IH]; [auto|]. cbn [forallb]. intro H. apply andb_true_iff in H as [H1 H2].
  rewrite (Hx H1), (IH H2). reflexivity.
Qed.

(* Proofs/SpansDefs.v defines several families of boolean predicates on trees by the same equations, each
   saying "every span stored in x satisfies f" for some f (in the window; none at all; ...).  Any family
   satisfying these equations is `forallb f` over the collected spans.  (The conjuncts of the predicates and
   the segments of `*_spans` come in different orders.) *)
Section AllSpans.
  Variable f : N * N -> bool.
  Variables (op : ospan -> bool) (rp : raw -> bool) (orp : option raw -> bool) (dp : decor -> bool) (kp : key -> bool)
            (vp : value -> bool) (ip : item -> bool) (tp : tbl -> bool).
  Let ok := forallb f.
  Hypothesis Hop : forall o, op o = ok (ospan_spans o).
  Hypothesis Hrp : forall r, rp r = op (raw_span r).
  Hypothesis Horp : forall o, orp o = match o with Some r => rp r | None => true end.
  Hypothesis Hdp : forall d, dp d = orp (d_prefix d) && orp (d_suffix d).
  Hypothesis Hkp : forall k, kp k = orp (k_repr k) && dp (k_leaf k) && dp (k_dotted k).
  Hypothesis Hscalar : forall s r d, vp (VScalar s r d) = orp r && dp d.
  Hypothesis Harray : forall vals tr c d sp, vp (VArray vals tr c d sp) = forallb ip vals && rp tr && dp d && op sp.
  Hypothesis Hinline : forall items pre im dt d sp,
      vp (VInline items pre im dt d sp) = forallb (fun kv => kp (fst kv) && ip (snd kv)) items && rp pre && dp d && op sp.
  Hypothesis Hnone : ip INone = true.
  Hypothesis Hvalue : forall v, ip (IValue v) = vp v.
  Hypothesis Htable : forall t, ip (ITable t) = tp t.
  Hypothesis Haot : forall ts sp, ip (IAot ts sp) = forallb tp ts && op sp.
  Hypothesis Htbl : forall items d im dt p sp,
      tp (Tbl items d im dt p sp) = forallb (fun kv => kp (fst kv) && ip (snd kv)) items && dp d && op sp.

  Lemma oraw_all_spans o : orp o = ok (oraw_spans o).
  Proof. rewrite Horp. destruct o as [r|]; [rewrite Hrp; apply Hop|reflexivity]. Qed.
  Lemma decor_all_spans d : dp d = ok (decor_spans d).
  Proof. rewrite Hdp. unfold decor_spans, ok. rewrite forallb_app, !oraw_all_spans. reflexivity. Qed.
  Lemma key_all_spans k : kp k = ok (key_spans k).
  Proof. rewrite Hkp. unfold key_spans, ok. rewrite !forallb_app, oraw_all_spans, !decor_all_spans, andb_assoc. reflexivity. Qed.

  Lemma kvs_all_spans (l : list (key * item)) :
    Forall (fun kv => ip (snd kv) = ok (item_spans (snd kv))) l ->
    forallb (fun kv => kp (fst kv) && ip (snd kv)) l = ok (flat_map (fun kv => key_spans (fst kv) ++ item_spans (snd kv)) l).
  Proof.
    intro IH. unfold ok. rewrite forallb_flat_map. apply forallb_Forall_eq. eapply Forall_impl; [|exact IH].
    intros kv E. rewrite forallb_app, key_all_spans, E. reflexivity.
  Qed.

  Lemma tree_all_spans :
    (forall v, vp v = ok (value_spans v)) /\ (forall it, ip it = ok (item_spans it)) /\ (forall t, tp t = ok (tbl_spans t)).
  Proof.
    apply tree_ind3.
    - intros s r d. rewrite Hscalar. cbn [value_spans]. unfold ok. rewrite forallb_app, oraw_all_spans, decor_all_spans. reflexivity.
    - intros vals tr c d sp IH. rewrite Harray. cbn [value_spans]. unfold ok. rewrite !forallb_app, forallb_flat_map.
      rewrite (forallb_Forall_eq _ _ _ IH), Hop, decor_all_spans, Hrp, Hop. fold ok. unfold raw_spans.
      apply andb4_rev.
    - intros items pre im dt d sp IH. rewrite Hinline. cbn [value_spans]. unfold ok. rewrite !forallb_app. fold ok.
      rewrite (kvs_all_spans _ IH), Hop, decor_all_spans, Hrp, Hop. unfold raw_spans.
      apply andb4_rev.
    - exact Hnone.
    - intros v IH. rewrite Hvalue. exact IH.
    - intros t IH. rewrite Htable. exact IH.
    - intros ts sp IH. rewrite Haot. cbn [item_spans]. unfold ok. rewrite forallb_app, forallb_flat_map.
      rewrite (forallb_Forall_eq _ _ _ IH), Hop. apply andb_comm.
    - intros items d im dt p sp IH. rewrite Htbl. cbn [tbl_spans]. unfold ok. rewrite !forallb_app. fold ok.
      rewrite (kvs_all_spans _ IH), Hop, decor_all_spans.
      apply andb3_rev.
  Qed.
End AllSpans.

(* `*_in lo hi x`: every span collected from x lies in the window *)
Section InSpans.
  Variables lo hi : N.
  Let ok := forallb (sp_in lo hi).
  Lemma osp_in_spans o : osp_in lo hi o = ok (ospan_spans o).
  Proof. destruct o; cbn; [rewrite andb_true_r|]; reflexivity. Qed.
  Lemma oraw_in_spans o : oraw_in lo hi o = ok (oraw_spans o).
  Proof. apply (oraw_all_spans _ (osp_in lo hi) (raw_in lo hi)); [apply osp_in_spans|reflexivity|reflexivity]. Qed.
  Lemma decor_in_spans d : decor_in lo hi d = ok (decor_spans d).
  Proof. apply (decor_all_spans _ (osp_in lo hi) (raw_in lo hi) (oraw_in lo hi)); [apply osp_in_spans|reflexivity..]. Qed.
  Lemma key_in_spans k : key_in lo hi k = ok (key_spans k).
  Proof. apply (key_all_spans _ (osp_in lo hi) (raw_in lo hi) (oraw_in lo hi) (decor_in lo hi)); [apply osp_in_spans|reflexivity..]. Qed.
  Lemma tree_in_spans :
    (forall v, value_in lo hi v = ok (value_spans v))
    /\ (forall it, item_in lo hi it = ok (item_spans it))
    /\ (forall t, tbl_in lo hi t = ok (tbl_spans t)).
  Proof.
    apply (tree_all_spans _ (osp_in lo hi) (raw_in lo hi) (oraw_in lo hi) (decor_in lo hi) (key_in lo hi));
      [apply osp_in_spans|reflexivity..].
  Qed.
End InSpans.

(* ---- monotonicity in the window ------------------------------------------------------------------------ *)
Section Mono.
  Variables lo hi lo' hi' : N.
  Hypothesis Hlo : (lo' <= lo)%N.
  Hypothesis Hhi : (hi <= hi')%N.

  Lemma sp_in_mono sp : sp_in lo hi sp = true -> sp_in lo' hi' sp = true.
  Proof. unfold sp_in. lia. Qed.
  Lemma spans_in_mono l : forallb (sp_in lo hi) l = true -> forallb (sp_in lo' hi') l = true.
  Proof. apply forallb_Forall_imp, Forall_forall. intros sp _. apply sp_in_mono. Qed.

  Lemma osp_in_mono o : osp_in lo hi o = true -> osp_in lo' hi' o = true.
  Proof. rewrite !osp_in_spans. apply spans_in_mono. Qed.
  Lemma raw_in_mono r : raw_in lo hi r = true -> raw_in lo' hi' r = true.
  Proof. apply osp_in_mono. Qed.
  Lemma oraw_in_mono o : oraw_in lo hi o = true -> oraw_in lo' hi' o = true.
  Proof. rewrite !oraw_in_spans. apply spans_in_mono. Qed.
  Lemma decor_in_mono d : decor_in lo hi d = true -> decor_in lo' hi' d = true.
  Proof. rewrite !decor_in_spans. apply spans_in_mono. Qed.
  Lemma key_in_mono k : key_in lo hi k = true -> key_in lo' hi' k = true.
  Proof. rewrite !key_in_spans. apply spans_in_mono. Qed.
  Lemma value_in_mono v : value_in lo hi v = true -> value_in lo' hi' v = true.
  Proof. rewrite !(proj1 (tree_in_spans _ _)). apply spans_in_mono. Qed.
  Lemma item_in_mono it : item_in lo hi it = true -> item_in lo' hi' it = true.
  Proof. rewrite !(proj1 (proj2 (tree_in_spans _ _))). apply spans_in_mono. Qed.
  Lemma tbl_in_mono t : tbl_in lo hi t = true -> tbl_in lo' hi' t = true.
  Proof. rewrite !(proj2 (proj2 (tree_in_spans _ _))). apply spans_in_mono. Qed.
  Lemma kv_in_mono kv : kv_in lo hi kv = true -> kv_in lo' hi' kv = true.
  Proof.
    unfold kv_in. intro H. apply andb_true_iff in H as [H1 H2].
    rewrite (key_in_mono _ H1), (item_in_mono _ H2). reflexivity.
  Qed.
  Lemma items_in_mono m : items_in lo hi m = true -> items_in lo' hi' m = true.
  Proof.
    unfold items_in. apply forallb_Forall_imp. apply Forall_forall. intros kv _. apply kv_in_mono.
  Qed.
End Mono.

(* ---- association lists ----------------------------------------------------------------------------------- *)
Section Kvs.
  Variables lo hi : N.
  Lemma items_in_get m k k' it : items_in lo hi m = true -> kv_get m k = Some (k', it) ->
    key_in lo hi k' = true /\ item_in lo hi it = true.
  Proof. intros H E. apply andb_true_iff. exact (kv_get_forallb _ _ _ _ _ H E). Qed.
  Lemma items_in_push m k v : items_in lo hi m = true -> key_in lo hi k = true -> item_in lo hi v = true ->
    items_in lo hi (kv_push m k v) = true.
  Proof.
    intros H1 H2 H3. apply kv_push_forallb; [exact H1|]. unfold kv_in; cbn [fst snd]. rewrite H2, H3. reflexivity.
  Qed.
  Lemma items_in_set m k v : items_in lo hi m = true -> item_in lo hi v = true -> items_in lo hi (kv_set m k v) = true.
  Proof.
    intros H1 H2. apply kv_set_forallb; [exact H1|]. unfold kv_in; cbn [fst snd].
    intros k0 old _ H. apply andb_true_iff in H as [H _]. rewrite H, H2. reflexivity.
  Qed.
  Lemma items_in_remove m k : items_in lo hi m = true -> items_in lo hi (kv_remove m k) = true.
  Proof. apply kv_remove_forallb. Qed.
End Kvs.
