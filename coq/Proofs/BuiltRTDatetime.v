(* Proofs/BuiltRTDatetime.v — C06: the Display text of an in-range date-time is read back by the value
   parser as the same date-time in front of anything that can follow a value (C12 proves this for the
   complete string; here the stage lemmas of Proofs/DatetimeEq.v are composed in context). *)
From TV Require Import Base.Prelude Base.Utf8 Base.Winnow Gen.Consts.
From TV Require Import Model.Trivia Model.Strings Model.Datetime Model.DatetimeStd Spec.DatetimeSpec Model.Numbers Model.Tree Model.Parse.
From TV Require Import Model.Write Model.Encode Model.Build.
From TV Require Import Proofs.DatetimeEq Proofs.NoPanicBase Proofs.NoPanicLex.
From TV Require Import Proofs.NumbersRT_Lex Proofs.NumbersRT_Int Proofs.NumbersRT_Value.
From TV Require Import Proofs.StringsRTDefs Proofs.StringsRTBase.
From TV Require Import Proofs.BuiltRTBase Proofs.BuiltRTEncode Proofs.BuiltRTParse Proofs.BuiltRTKey Proofs.BuiltRTValue Proofs.BuiltRTLeaf.
Require Import Lia ZifyBool ZifyN ZifyNat.

Lemma nterm_stops2 r : nterm r -> stops2 r.
Proof. destruct r as [|b r']; [auto|]. intros (H1 & _ & H3 & _). split; [exact H1|apply byte_eqb_neq, H3]. Qed.

(* ---- the offset in front of a continuation --------------------------------------------------------------- *)
Lemma offset_print_rest o rest : offset_ok o = true -> std_offset (display_offset o ++ rest) = Some (Some o, rest).
Proof.
  destruct o as [|m]; [reflexivity|]. unfold offset_ok, display_offset. intro Hok.
  set (a := Z.to_N (Z.abs m)). set (sg := if (m <? 0)%Z then dash else plus).
  change ((sg :: pad0 2 (a / 60) ++ [colon] ++ pad0 2 (a mod 60)) ++ rest)
    with (sg :: (pad0 2 (a / 60) ++ [colon] ++ pad0 2 (a mod 60)) ++ rest).
  rewrite std_offset_nf.
  assert (Ha : (a <= 1439)%N) by (unfold a; lia).
  assert (H5 : hm5 ((pad0 2 (a / 60) ++ [colon] ++ pad0 2 (a mod 60)) ++ rest)
               = Some ((a / 60, a mod 60)%N, rest)).
  { unfold hm5, sbind. rewrite <- !app_assoc. rewrite two_pad by lia. cbn [app]. rewrite sexpect_same.
    rewrite two_pad by lia. reflexivity. }
  rewrite H5.
  destruct ((23 <? a / 60)%N || (59 <? a mod 60)%N) eqn:E1; [lia|].
  unfold sg. destruct (m <? 0)%Z eqn:Em.
  - change (byte_eqb dash x5a || byte_eqb dash x7a) with false.
    change (sign_of dash) with (Some (-1)%Z). cbv iota.
    assert (Hx : (-1 * Z.of_N (a / 60 * 60 + a mod 60))%Z = m) by (unfold a; lia).
    rewrite Hx. destruct ((-1440 <=? m)%Z && (m <=? 1440)%Z) eqn:E2; [reflexivity|lia].
  - change (byte_eqb plus x5a || byte_eqb plus x7a) with false.
    change (sign_of plus) with (Some 1%Z). cbv iota.
    assert (Hx : (1 * Z.of_N (a / 60 * 60 + a mod 60))%Z = m) by (unfold a; lia).
    rewrite Hx. destruct ((-1440 <=? m)%Z && (m <=? 1440)%Z) eqn:E2; [reflexivity|lia].
Qed.

Lemma opt_offset_none R p d : nterm R -> opt time_offset (mkIn R p d) = Ok None (mkIn R p d).
Proof.
  destruct R as [|b R']; [reflexivity|].
  intros (_ & _ & _ & _ & Hdash & _ & _ & _ & _ & _ & _ & HZ & Hz & Hplus & _).
  unfold opt, time_offset, context, alt, pvalue, pmap, verify, bind, one_of. cbn [rest].
  apply byte_eqb_neq in HZ, Hz, Hplus, Hdash. rewrite HZ, Hz, Hplus, Hdash. reflexivity.
Qed.

Definition after_date_p : parser (option (time * option offset)) :=
  opt (time_delim ;;; t <- partial_time ;; off <- opt time_offset ;; ret (t, off)).

Lemma after_date_none R p d : nterm R -> after_date_p (mkIn R p d) = Ok None (mkIn R p d).
Proof.
  destruct R as [|b R']; [reflexivity|]. intro Hn.
  destruct Hn as (_ & _ & _ & _ & _ & _ & _ & _ & _ & HT & Ht & _ & _ & _ & Hsp).
  unfold after_date_p, opt, time_delim. unfold bind at 1. unfold one_of. cbn [rest].
  rewrite in_class_delim.
  apply byte_eqb_neq in HT, Ht. rewrite HT, Ht. cbn [orb].
  destruct (byte_eqb b x20) eqn:E3; [|reflexivity].
  apply byte_eqb_eq in E3. specialize (Hsp E3).
  unfold partial_time, time_hour, two_digit_field, bind, try_map.
  rewrite (unsigned_digits_nodigit 1 (advance 1 (mkIn (b :: R') p d))); [reflexivity|].
  rewrite rest_advance. cbn [rest skipn]. exact Hsp.
Qed.

(* ---- date_time on the Display text, in context ------------------------------------------------------------- *)
Lemma date_time_ctx dt R p d :
  in_range dt = true -> nterm R ->
  exists p', date_time (mkIn (display_datetime dt ++ R) p d) = Ok dt (mkIn R p' d).
Proof.
  intros Hr Hn.
  assert (G : exists p' d', date_time (mkIn (display_datetime dt ++ R) p d) = Ok dt (mkIn R p' d')).
  2:{ destruct G as (p' & d' & E). exists p'. pose proof (date_time_mono _ _ _ E) as Hext.
      apply ext_depth in Hext. cbn [depth] in Hext. subst d'. exact E. }
  destruct dt as [[da|] [t|] oo]; unfold in_range in Hr; cbn [d_date d_time d_offset] in Hr.
  - (* date, time, optional offset *)
    assert (Hd : date_ok da = true) by (destruct oo; lia).
    assert (Ht : time_ok t = true) by (destruct oo; lia).
    assert (Ho : forall o, oo = Some o -> offset_ok o = true) by (intros o ->; lia).
    unfold display_datetime. cbn [d_date d_time d_offset].
    set (OFF := match oo with Some o => display_offset o | None => [] end).
    match goal with |- context [mkIn ?X p d] =>
      assert (Es : X = display_date da ++ x54 :: display_time t ++ OFF ++ R)
        by (unfold OFF; rewrite <- !app_assoc; reflexivity);
      rewrite Es
    end.
    pose proof (date_stage (display_date da ++ x54 :: display_time t ++ OFF ++ R) p d) as HD.
    rewrite (date_print da _ Hd) in HD.
    destruct HD as (p1 & d1 & E1).
    assert (Hst2 : stops2 (OFF ++ R)).
    { unfold OFF. destruct oo as [[|m]|]; cbn [app]; [split; reflexivity| |apply nterm_stops2, Hn].
      unfold display_offset. destruct (m <? 0)%Z; split; reflexivity. }
    pose proof (time_stage (display_time t ++ OFF ++ R) (p1 + N.of_nat 1)%N d1) as HT.
    rewrite (time_print t _ Ht Hst2) in HT. destruct HT as (p3 & d3 & E3).
    assert (HO : exists p4 d4, opt time_offset (mkIn (OFF ++ R) p3 d3) = Ok oo (mkIn R p4 d4)).
    { unfold OFF. destruct oo as [o|]; cbn [app].
      - pose proof (offset_stage (display_offset o ++ R) p3 d3 _ eq_refl) as HO.
        rewrite (offset_print_rest o R (Ho o eq_refl)) in HO. exact HO.
      - exists p3, d3. apply opt_offset_none, Hn. }
    destruct HO as (p4 & d4 & E4).
    exists p4, d4. unfold date_time, alt, context. unfold bind at 1. rewrite E1.
    unfold bind at 1. unfold opt at 1. unfold bind at 1. unfold time_delim, one_of. cbn [rest].
    change (in_class TIME_DELIM x54) with true. cbv iota.
    unfold advance. cbn [rest pos depth skipn].
    unfold bind at 1. rewrite E3. unfold bind at 1. rewrite E4. reflexivity.
  - (* date only *)
    destruct oo; [discriminate|]. rename Hr into Hd.
    unfold display_datetime. cbn [d_date d_time d_offset]. rewrite !app_nil_r.
    pose proof (date_stage (display_date da ++ R) p d) as HD. rewrite (date_print da _ Hd) in HD.
    destruct HD as (p1 & d1 & E1).
    exists p1, d1. unfold date_time, alt, context. unfold bind at 1. rewrite E1.
    unfold bind at 1. fold after_date_p. rewrite (after_date_none R p1 d1 Hn). reflexivity.
  - (* time only *)
    destruct oo; [discriminate|]. rename Hr into Ht.
    unfold display_datetime. cbn [d_date d_time d_offset app]. rewrite app_nil_r.
    assert (H3 : nth_error (display_time t ++ R) 2 = Some colon) by (apply time_third, Ht).
    assert (Hs : soft (full_date (mkIn (display_time t ++ R) p d))).
    { apply full_date_soft. destruct (display_time t ++ R) as [|a [|b [|c r]]]; try discriminate H3.
      cbn [nth_error] in H3. injection H3 as ->. apply four_third. reflexivity. }
    rewrite (date_time_soft _ Hs).
    pose proof (time_stage (display_time t ++ R) p d) as HT.
    rewrite (time_print t _ Ht (nterm_stops2 R Hn)) in HT. destruct HT as (p3 & d3 & E3).
    exists p3, d3. unfold context, pmap. rewrite E3. reflexivity.
  - destruct oo; discriminate.
Qed.

(* the text starts with a digit *)
Lemma pad0_head k n : (1 <= k <= 40)%nat -> (n < pow10 k)%N -> exists b tl, pad0 k n = b :: tl /\ is_digit b = true.
Proof.
  intros Hk Hn. rewrite (pad0_digs k n Hk Hn). pose proof (digs_digits k n) as Hd. pose proof (digs_length k n) as Hl.
  destruct (digs k n) as [|b tl]; [cbn in Hl; lia|]. exists b, tl. split; [reflexivity|].
  cbn [forallb] in Hd. apply andb_true_iff in Hd. tauto.
Qed.

Lemma display_datetime_head dt : in_range dt = true ->
  exists b tl, display_datetime dt = b :: tl /\ is_digit b = true.
Proof.
  intro Hr. destruct dt as [[da|] [t|] oo]; unfold in_range in Hr; cbn [d_date d_time d_offset] in Hr;
    unfold display_datetime; cbn [d_date d_time d_offset].
  - assert (Hd : date_ok da = true) by (destruct oo; lia). unfold date_ok in Hd.
    destruct (pad0_head 4 (year da)) as (b & tl & E & Hb); [lia|change (pow10 4) with 10000%N; lia|].
    unfold display_date. rewrite E. cbn [app]. eauto.
  - destruct oo; [discriminate|]. unfold date_ok in Hr.
    destruct (pad0_head 4 (year da)) as (b & tl & E & Hb); [lia|change (pow10 4) with 10000%N; lia|].
    unfold display_date. rewrite E. cbn [app]. eauto.
  - destruct oo; [discriminate|]. unfold time_ok in Hr.
    destruct (pad0_head 2 (hour t)) as (b & tl & E & Hb); [lia|change (pow10 2) with 100%N; lia|].
    unfold display_time. rewrite E. cbn [app]. eauto.
  - destruct oo; discriminate.
Qed.

Lemma leaf_datetime ftext dt : in_range dt = true -> leaf_ok ftext (SDatetime dt).
Proof.
  intro Hr. destruct (display_datetime_head dt Hr) as (b & tl & Eh & Hb).
  assert (Hns : num_start b = true) by (unfold num_start; rewrite Hb; reflexivity).
  apply leaf_intro; cbn [scalar_txt scalar_default_repr].
  - exists b, tl. split; [exact Eh|apply num_start_vstart, Hns].
  - intros vr r p d Hv. pose proof (vterm_nterm r Hv) as Hn.
    destruct (date_time_ctx dt r p d Hr Hn) as (p' & E). exists p'.
    rewrite (value_body_number vr _ b (tl ++ r)); [|cbn [rest]; rewrite Eh; reflexivity|exact Hns].
    unfold number_arm. apply alt_ok. rewrite (pmap_ok _ _ _ _ _ E). reflexivity.
Qed.
