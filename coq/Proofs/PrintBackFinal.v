(* Proofs/PrintBackFinal.v — C03, class (c): a tree of sections whose sections are known (as a
   multiset, each with the text it was read from) prints as these texts in the order of their
   positions, provided every header prints with the spelling it has in the source. *)
From TV Require Import Base.Prelude.
From TV Require Import Model.Tree Model.Encode.
From TV Require Import Proofs.SpansDefs Proofs.PrintBackBase Proofs.PrintBackValue Proofs.PrintBackDoc Proofs.PrintBackSort
                       Proofs.PrintBackEnts Proofs.PrintBackDisplay Proofs.PrintBackSecs Proofs.PrintBackState Proofs.PrintBackHKey.
Require Import Lia ZifyBool ZifyN ZifyNat Sorting.Sorted Sorting.Permutation.

(* ---- every header prints as it is spelled in the source, at the start of its table's span --------------------- *)
Definition spelled (s : bytes) (r : tbl) : bool :=
  forallb (fun e : entry => let '(t, p, a) := e in
             negb (svis e) ||
             match t_span t with
             | Some sp => starts_with (hdr_text s p a) (skipn (N.to_nat (fst sp)) s)
             | None => false
             end) (sub_ents (t_items r) []).

(* ---- a section as read: its record, the text of its header key, its normal form ------------------------------- *)
Definition dsec : Type := (psec * bytes * bytes)%type.
Definition d_sec (d : dsec) : psec := fst (fst d).
Definition d_out (d : dsec) : bytes := snd d.
Definition plain_vals (vs : list (key * value)) : Prop := Forall (fun kv : key * value => vplain (snd kv) = true) vs.

Definition stext (s : bytes) (x : psec) (h : bytes) : bytes :=
  let '(q, (a, d, st, vs)) := x in
  raw_encode (traw s (match d_prefix d with Some r => r | None => REmpty end)) [] ++ h
  ++ raw_encode (traw s (match d_suffix d with Some r => r | None => REmpty end)) [] ++ [x0a]
  ++ flat_map (kv_line s) vs.

Definition root_ok (s : bytes) (d : dsec) : Prop :=
  let '(x, Y, ot) := d in
  fst x = 0%N /\ (plain_vals (snd (snd x)) -> flat_map (kv_line s) (snd (snd x)) = ot).

Definition hdr_ok (s : bytes) (d : dsec) : Prop :=
  let '(x, Y, ot) := d in
  exists q a lead trail start vs,
    x = (q, (a, decor_new lead trail, Some start, vs)) /\ q <> 0%N /\ hdr_at s start a Y
    /\ (plain_vals vs -> stext s x (hdr_open a ++ Y ++ hdr_close a) = ot).

(* ---- helper facts ------------------------------------------------------------------------------------------------ *)
Lemma map_pair_ext {A B C D} (f : A -> C) (g : B -> C) (F : A -> D) (G : B -> D) : forall l1 l2,
  map f l1 = map g l2 -> (forall a b, In a l1 -> In b l2 -> f a = g b -> F a = G b) -> map F l1 = map G l2.
Proof.
  induction l1 as [|a l1 IH]; intros [|b l2] E H; try discriminate; [reflexivity|]. cbn [map] in *. injection E as E1 E2.
  rewrite (H a b (or_introl eq_refl) (or_introl eq_refl) E1). f_equal. apply IH; [exact E2|].
  intros a0 b0 Ha Hb. apply H; right; assumption.
Qed.

Lemma sorted_lt_nodup (l : list N) : StronglySorted N.lt l -> NoDup l.
Proof.
  induction 1 as [|x l _ IH Hx]; constructor; [|exact IH]. intro Hin. rewrite Forall_forall in Hx. specialize (Hx x Hin). lia.
Qed.

Lemma ents_paths K :
  (forall v : value, True)
  /\ (forall it, forall p, uki K it -> Forall K p -> Forall (fun e => Forall K (epath e)) (ients it p))
  /\ (forall t, forall p a, uk K t -> Forall K p -> Forall (fun e => Forall K (epath e)) (ents t p a)).
Proof.
  apply tree_ind3; try (intros; exact I).
  - intros; constructor.
  - intros; constructor.
  - intros t IH p Hu Hp. rewrite ients_table. apply IH; assumption.
  - intros ts sp IH p Hu Hp. rewrite ients_aot. apply uki_aot in Hu. rewrite Forall_forall in IH, Hu. apply Forall_forall. intros e He.
    apply in_flat_map in He as (t & Ht & He). specialize (IH t Ht p true (Hu t Ht) Hp). rewrite Forall_forall in IH. apply IH, He.
  - intros items d im dt pos sp IH p a Hu Hp. rewrite ents_eq. apply uk_eq in Hu as (_ & _ & Hs). cbn [t_dotted t_items] in *.
    apply Forall_app. split; [destruct dt; constructor; [exact Hp|constructor]|].
    unfold sub_ents, uks in *. rewrite Forall_forall in *. intros e He. apply in_flat_map in He as ([k it] & Hk & He). cbn [fst snd] in He.
    destruct (Hs _ Hk) as [HK Hi]. cbn [fst snd] in *. destruct it as [|v|sub|ts asp]; [destruct He|destruct He| |].
    + specialize (IH _ Hk (p ++ [k]) Hi). cbn [snd] in IH. assert (Hpk : Forall K (p ++ [k])).
      { apply Forall_forall. intros x Hx. apply in_app_iff in Hx as [Hx | [<- | []]]; [apply Hp, Hx|apply HK; reflexivity]. }
      specialize (IH Hpk). rewrite Forall_forall in IH. apply IH, He.
    + specialize (IH _ Hk (p ++ [k]) Hi). cbn [snd] in IH. assert (Hpk : Forall K (p ++ [k])).
      { apply Forall_forall. intros x Hx. apply in_app_iff in Hx as [Hx | [<- | []]]; [apply Hp, Hx|apply HK; reflexivity]. }
      specialize (IH Hpk). rewrite Forall_forall in IH. apply IH, He.
Qed.

Lemma sub_ents_paths K r : uk K r -> Forall (fun e => Forall K (epath e)) (sub_ents (t_items r) []).
Proof.
  intro Hu. pose proof (proj2 (proj2 (ents_paths K)) r [] false Hu (Forall_nil _)) as H. rewrite ents_eq in H.
  apply Forall_app in H as [_ H]. exact H.
Qed.

Lemma sec_vals_plain t : sec_tbl t = true -> plain_vals (vals (t_items t)).
Proof.
  intro Hs. rewrite sec_tbl_eq in Hs. apply andb_true_iff in Hs as [_ Hi]. rewrite forallb_forall in Hi. unfold plain_vals, vals.
  apply Forall_forall. intros [k v] Hin. apply in_flat_map in Hin as ([k0 it] & Hk & Hin). specialize (Hi _ Hk). cbn [fst snd] in *.
  destruct it as [|v0|sub|ts asp]; [destruct Hin| |destruct Hin|destruct Hin]. destruct Hin as [E | []]. injection E as <- <-. exact Hi.
Qed.

(* ---- the theorem ---------------------------------------------------------------------------------------------------- *)
Theorem sections_render s r tr (d0 : dsec) (ds : list dsec) :
  sec_tbl r = true -> t_decor r = decor_default -> t_position r = None -> uk (hkey s) r ->
  Permutation (Proot r) (map d_sec (d0 :: ds)) -> root_ok s d0 -> Forall (hdr_ok s) ds ->
  StronglySorted N.lt (map (fun d => fst (d_sec d)) (d0 :: ds)) -> spelled s r = true ->
  display_document (ttbl s r) tr = concat (map d_out (d0 :: ds)) ++ raw_encode tr [].
Proof.
  intros Hs Hd Hp Hu Hperm H0 Hds Hsort Hsp.
  set (rest := sub_ents (t_items r) []) in *. set (root := (r, @nil key, false) : entry).
  pose proof (sub_ents_sec r Hs) as Hrest. fold rest in Hrest.
  pose proof (sub_ents_paths _ r Hu) as Hpaths. fold rest in Hpaths.
  assert (E1 : map pe (root :: filter svis rest) = Proot r).
  { cbn [map]. unfold Proot. f_equal. apply (sub_ents_P r Hs). }
  (* positions are distinct; the root has position 0 *)
  assert (Hnd : NoDup (map fst (Proot r))).
  { apply (Permutation_NoDup (l := map fst (map d_sec (d0 :: ds)))); [apply Permutation_map, Permutation_sym, Hperm|].
    rewrite map_map. apply sorted_lt_nodup, Hsort. }
  assert (Hq0 : fst (d_sec d0) = 0%N) by (destruct d0 as [[x Y] O]; apply H0).
  assert (Hqs : Forall (fun d => fst (d_sec d) <> 0%N) ds).
  { eapply Forall_impl; [|exact Hds]. intros [[x Y] O] (q & a & lead & trail & start & vs & -> & Hq & _). exact Hq. }
  assert (Hsub : forall e, In e (filter svis rest) -> fst (pe e) <> 0%N /\ exists d, In d ds /\ d_sec d = pe e).
  { intros e He. assert (Hin : In (pe e) (PI (t_items r))) by (rewrite <- (sub_ents_P r Hs); apply in_map, He).
    assert (Hne : fst (pe e) <> 0%N).
    { unfold Proot in Hnd. cbn [map] in Hnd. inversion Hnd as [|? ? Hni _]; subst. intro Hz. apply Hni.
      rewrite Hp, <- Hz. apply in_map, Hin. }
    split; [exact Hne|].
    assert (Hin2 : In (pe e) (map d_sec (d0 :: ds))) by (apply (Permutation_in _ Hperm); right; exact Hin).
    cbn [map] in Hin2. destruct Hin2 as [E | Hin2]; [rewrite <- E in Hne; congruence|].
    apply in_map_iff in Hin2 as (d & Ed & Hd0). exists d. auto. }
  rewrite (display_sections s r tr Hs Hd Hp).
  2:{ apply Forall_forall. intros e He Hv. assert (Hf : In e (filter svis rest)) by (apply filter_In; auto).
      destruct (Hsub e Hf) as [Hne (d & Hdin & Ed)]. split.
      - intro Hn. apply Hne. unfold pe, sec_of. cbn [fst]. rewrite Hn. reflexivity.
      - rewrite Forall_forall in Hds. specialize (Hds d Hdin). destruct d as [[x Y] O].
        destruct Hds as (q & a & lead & trail & start & vs & Ex & _). unfold d_sec in Ed. cbn [fst] in Ed. rewrite Ex in Ed.
        unfold pe, sec_of in Ed. injection Ed as _ _ Edec _ _. rewrite <- Edec. split; discriminate. }
  f_equal. f_equal.
  (* pair the entries with the sections read *)
  assert (Hperm' : Permutation (map pe (root :: filter svis rest)) (map d_sec (d0 :: ds))) by (rewrite E1; exact Hperm).
  apply Permutation_map_inv in Hperm' as (D' & ED' & HD').
  assert (Epair : map (fun e => (epos e, etxt s e)) (root :: filter svis rest) = map (fun d => (fst (d_sec d), d_out d)) D').
  { apply (map_pair_ext pe d_sec _ _ _ _ ED'). intros e d He Hdin Eed.
    assert (Hdin' : In d (d0 :: ds)) by (apply (Permutation_in _ (Permutation_sym HD')), Hdin).
    f_equal; [rewrite <- Eed; reflexivity|].
    destruct He as [<- | He].
    - (* the root section *)
      assert (Ed0 : d = d0).
      { destruct Hdin' as [E | Hin]; [symmetry; exact E|]. rewrite Forall_forall in Hqs. exfalso. apply (Hqs d Hin). rewrite <- Eed.
        unfold pe, sec_of, root, etbl. cbn [fst]. rewrite Hp. reflexivity. }
      subst d. destruct d0 as [[x Y] O]. unfold d_sec, d_out in *. cbn [fst snd] in *. destruct H0 as [_ H0]. subst x.
      unfold pe, sec_of, root, etbl in H0. cbn [fst snd] in H0. cbn [root etxt]. unfold ktext. apply H0, sec_vals_plain, Hs.
    - (* a header section *)
      destruct (Hsub e He) as [Hne _]. destruct Hdin' as [E | Hin]; [exfalso; apply Hne; rewrite Eed, <- E; exact Hq0|].
      rewrite Forall_forall in Hds. specialize (Hds d Hin). destruct d as [[x Y] O]. unfold d_sec, d_out in *. cbn [fst snd] in *.
      destruct Hds as (q & a & lead & trail & start & vs & Ex & _ & Hat & Hprom). apply filter_In in He as [He Hv].
      rewrite Forall_forall in Hrest, Hpaths. destruct (Hrest e He) as [Hse Hpe]. specialize (Hpaths e He).
      destruct e as [[t p] a']. unfold esec, epath, pe, etbl, sec_of in *. cbn [fst snd] in *. rewrite Ex in Eed.
      injection Eed as Eq Ea Edec Espan Evals. subst a'.
      (* the header as spelled *)
      unfold spelled in Hsp. rewrite forallb_forall in Hsp. specialize (Hsp _ He). cbn beta iota in Hsp. rewrite Hv in Hsp. cbn [negb orb] in Hsp.
      destruct (t_span t) as [sp|]; [|discriminate]. injection Espan as Estart. rewrite Estart in Hsp.
      pose proof (hdr_unique s p a start Y Hpaths Hpe Hat Hsp) as Eh.
      rewrite <- (Hprom ltac:(rewrite <- Evals; apply sec_vals_plain, Hse)). rewrite Ex. cbn [stext].
      destruct p as [|k0 p0]; [congruence|]. cbn [etxt]. unfold ktext. rewrite Eh, Edec, Evals. cbn [decor_new d_prefix d_suffix].
      reflexivity. }
  transitivity (map snd (map (fun d : dsec => (fst (d_sec d), d_out d)) (d0 :: ds))); [|rewrite map_map; reflexivity]. f_equal.
  change ((r, @nil key, false) :: filter svis (sub_ents (t_items r) [])) with (root :: filter svis rest).
  rewrite Epair. apply stable_sort_unique.
  - clear -Hsort. remember (d0 :: ds) as D eqn:ED. clear ED. induction D as [|d D IH]; [constructor|]. cbn [map] in *.
    inversion Hsort as [|? ? Hs' Hx]; subst. constructor; [apply IH, Hs'|]. rewrite Forall_map in *. exact Hx.
  - apply Permutation_map, Permutation_sym, HD'.
Qed.
