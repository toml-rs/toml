(* Proofs/SpansBoundary.v — C14, character boundaries, part 3: cursors on character boundaries.

     at_ s i   the cursor i points into the source text s (rest i = the suffix of s at pos i, pos i within
               s) and what remains is well-formed UTF-8;
   every parser hands on such a cursor (mono + uP), and such a cursor sits on a character boundary of s.
   Hence the span stored for a value / the repr of a key start and end on character boundaries. *)
From TV Require Import Base.Prelude Base.Utf8 Base.Winnow.
From TV Require Import Model.Tree Model.Parse.
From TV Require Import Proofs.NoPanicBase Proofs.NoPanicLex Proofs.NoPanicValue.
From TV Require Import Proofs.SpansExact Proofs.SpansUtf8 Proofs.SpansUtf8Lex.
Require Import Lia ZifyBool ZifyN ZifyNat.

Definition at_ (s : bytes) (i : input) : Prop :=
  cursor_of s i /\ (pos i <= N.of_nat (length s))%N /\ vin i.

Lemma at_new s : utf8_valid_b s = true -> at_ s (new_input s).
Proof. intro V. unfold at_, cursor_of, vin. cbn. repeat split; auto. lia. Qed.

Lemma skipn_length_le {A} (l : list A) n : length (skipn n l) = length l - n.
Proof. apply skipn_length. Qed.

Lemma at_step {A} (p : parser A) s i a i' : mono p -> uP p -> at_ s i -> p i = Ok a i' -> at_ s i'.
Proof.
  intros Mp Up (C & L & V) E. pose proof (Mp _ _ _ E) as (t & R & P & _).
  destruct (cursor_slice s i i' t C R P) as [_ C']. repeat split; [exact C'| |eapply Up; eauto].
  unfold cursor_of in C. assert (Hl : length (rest i) = length s - N.to_nat (pos i)) by (rewrite C; apply skipn_length).
  rewrite R, app_length in Hl. lia.
Qed.

Lemma nth_error_skipn {A} (l : list A) n : nth_error l n = match skipn n l with x :: _ => Some x | [] => None end.
Proof.
  revert l. induction n as [|n IH]; intros l.
  - destruct l; reflexivity.
  - destruct l as [|x l]; [reflexivity|]. cbn [nth_error skipn]. apply IH.
Qed.

Lemma at_boundary s i : at_ s i -> char_boundary_b s (pos i) = true.
Proof.
  intros (C & L & V). unfold char_boundary_b. rewrite nth_error_skipn. unfold cursor_of in C.
  assert (Hl : length (rest i) = length s - N.to_nat (pos i)) by (rewrite C; apply skipn_length).
  rewrite <- C. destruct (rest i) as [|b r] eqn:R.
  - cbn [length] in Hl. lia.
  - unfold vin in V. rewrite R in V. apply valid_starts_char in V. cbn [starts_char] in V.
    unfold is_boundary_byte, is_cont in *. lia.
Qed.

(* the span of a value starts and ends on character boundaries *)
Theorem value_span_boundaries s i v i' :
  at_ s i -> value_ i = Ok v i' ->
  value_span v = Some (pos i, pos i') /\ char_boundary_b s (pos i) = true /\ char_boundary_b s (pos i') = true.
Proof.
  intros A E. split; [apply (value_exact _ _ _ E)|]. split; [apply at_boundary, A|].
  eapply at_boundary, (at_step value_); [np|apply value_uP|exact A|exact E].
Qed.
(* the repr of a key starts and ends on character boundaries *)
Theorem key_span_boundaries s i r k i' :
  at_ s i -> simple_key i = Ok (r, k) i' ->
  r = RSpanned (pos i) (pos i') /\ char_boundary_b s (pos i) = true /\ char_boundary_b s (pos i') = true.
Proof.
  intros A E. split; [apply (simple_key_span_exact _ _ _ _ E)|]. split; [apply at_boundary, A|].
  eapply at_boundary, (at_step simple_key); [np|apply simple_key_uP|exact A|exact E].
Qed.
