(* Proofs/SerdeRTEq.v — C07: unfolding equations of the nested mutual fixpoints (all by computation),
   so that the proofs never `simpl` them. *)
From TV Require Import Base.Prelude Spec.SerdeData Model.Ser Model.De.

(* ---- has_type_b ---- *)
Lemma ht_opt_some t v : has_type_b (TOpt t) (SSome v) = has_type_b t v. Proof. reflexivity. Qed.
Lemma ht_seq t vs : has_type_b (TSeq t) (SSeq vs) = forallb (has_type_b t) vs. Proof. reflexivity. Qed.
Lemma ht_tuple ts vs : has_type_b (TTuple ts) (SSeq vs) = all2b has_type_b ts vs. Proof. reflexivity. Qed.
Lemma ht_tuple_struct n ts vs : has_type_b (TTupleStruct n ts) (SSeq vs) = all2b has_type_b ts vs. Proof. reflexivity. Qed.
Lemma ht_map kt vt es : has_type_b (TMap kt vt) (SMap es) =
  negb (is_opt vt) && forallb (fun kv => has_type_b kt (fst kv) && has_type_b vt (snd kv)) es
  && nodup_bytes (somes (map (fun kv => key_text kt (fst kv)) es)).
Proof. reflexivity. Qed.
Lemma ht_struct n fs vs : has_type_b (TStruct n fs) (SRec vs) =
  negb (private_name n) && nodup_bytes (map fst fs) && all2b (fun ft v' => has_type_b (snd ft) v') fs vs.
Proof. reflexivity. Qed.
Lemma ht_newtype n t v : has_type_b (TNewtype n t) (SNewtype v) = has_type_b t v. Proof. reflexivity. Qed.
Lemma ht_enum n vs i p : has_type_b (TEnum n vs) (SVariant i p) =
  nodup_bytes (map fst vs) && pick (fun nv => has_type_variant_b (snd nv) p) false vs i.
Proof. reflexivity. Qed.
Lemma htv_newtype t p : has_type_variant_b (VNewtype t) p = has_type_b t p. Proof. destruct p; reflexivity. Qed.
Lemma htv_tuple ts vs : has_type_variant_b (VTuple ts) (SSeq vs) = all2b has_type_b ts vs. Proof. reflexivity. Qed.
Lemma htv_struct fs vs : has_type_variant_b (VStruct fs) (SRec vs) =
  nodup_bytes (map fst fs) && all2b (fun ft v' => has_type_b (snd ft) v') fs vs.
Proof. reflexivity. Qed.

(* ---- ser_value ---- *)
Definition ser_fields (fs : list (bytes * ty)) (vs : list sval) : result (list (option (bytes * tomlval))) :=
  zipM (fun ft v' => rmap (optmap (fun x => (fst ft, x))) (ser_map_value ser_value (snd ft) v')) fs vs.
Definition ser_entries (kt vt : ty) (es : list (sval * sval)) : result (list (option (bytes * tomlval))) :=
  mapM (fun kv => rbind (ser_key kt (fst kv)) (fun k =>
                  rmap (optmap (fun x => (k, x))) (ser_map_value ser_value vt (snd kv)))) es.
Definition table_of (ps : list (option (bytes * tomlval))) : tomlval := VTab (tab_of_pairs (somes_pairs ps)).

Lemma sv_opt_some t v : ser_value (TOpt t) (SSome v) = ser_value t v. Proof. reflexivity. Qed.
Lemma sv_seq t vs : ser_value (TSeq t) (SSeq vs) = rmap VArr (mapM (ser_value t) vs). Proof. reflexivity. Qed.
Lemma sv_tuple ts vs : ser_value (TTuple ts) (SSeq vs) = rmap VArr (zipM ser_value ts vs). Proof. reflexivity. Qed.
Lemma sv_tuple_struct n ts vs : ser_value (TTupleStruct n ts) (SSeq vs) = rmap VArr (zipM ser_value ts vs).
Proof. reflexivity. Qed.
Lemma sv_map kt vt es : ser_value (TMap kt vt) (SMap es) = rmap table_of (ser_entries kt vt es). Proof. reflexivity. Qed.
Lemma sv_struct n fs vs : ser_value (TStruct n fs) (SRec vs) =
  if bytes_eqb n DT_NAME then ser_dt_struct fs vs None else rmap table_of (ser_fields fs vs).
Proof. reflexivity. Qed.
Lemma sv_newtype n t v : ser_value (TNewtype n t) (SNewtype v) = ser_value t v. Proof. reflexivity. Qed.
Definition ser_variant (p : sval) (nv : bytes * variant) : result tomlval :=
  match snd nv with
  | VUnit => match p with SUnit => Ok (VStr (fst nv)) | _ => Err EBadCase end
  | _ => rmap (fun x => VTab [(fst nv, x)]) (ser_payload (snd nv) p)
  end.
Lemma sv_enum n vs i p : ser_value (TEnum n vs) (SVariant i p) = pick (ser_variant p) (Err EBadCase) vs i.
Proof. reflexivity. Qed.
Lemma sp_newtype t p : ser_payload (VNewtype t) p = ser_value t p. Proof. destruct p; reflexivity. Qed.
Lemma sp_tuple ts vs : ser_payload (VTuple ts) (SSeq vs) = rmap VArr (zipM ser_value ts vs). Proof. reflexivity. Qed.
Lemma sp_struct fs vs : ser_payload (VStruct fs) (SRec vs) = rmap table_of (ser_fields fs vs). Proof. reflexivity. Qed.

(* ---- de_value ---- *)
Definition de_entries (kt vt : ty) (es : list (bytes * tomlval)) : result (list (sval * sval)) :=
  mapM (fun kx => rbind (de_key kt (fst kx)) (fun k => rmap (fun v => (k, v)) (de_value vt (snd kx)))) es.
Definition de_unit_only (i : nat) (var : variant) : result sval :=
  match var with VUnit => Ok (SVariant i SUnit) | _ => Err EDe end.

Lemma dv_opt t x : de_value (TOpt t) x = rmap SSome (de_value t x). Proof. reflexivity. Qed.
Lemma dv_seq t xs : de_value (TSeq t) (VArr xs) = rmap SSeq (mapM (de_value t) xs). Proof. reflexivity. Qed.
Lemma dv_tuple ts xs : de_value (TTuple ts) (VArr xs) = rmap (fun r => SSeq (fst r)) (de_pos de_value (fun t' => t') ts xs).
Proof. reflexivity. Qed.
Lemma dv_tuple_struct n ts xs :
  de_value (TTupleStruct n ts) (VArr xs) = rmap (fun r => SSeq (fst r)) (de_pos de_value (fun t' => t') ts xs).
Proof. reflexivity. Qed.
Lemma dv_map kt vt es : de_value (TMap kt vt) (VTab es) = rmap (fun ps => SMap (smap_of_pairs ps)) (de_entries kt vt es).
Proof. reflexivity. Qed.
Lemma dv_struct n fs es : de_value (TStruct n fs) (VTab es) =
  if private_name n then Err EUnmodelled else rmap SRec (de_struct_map de_value fs es).
Proof. reflexivity. Qed.
Lemma dv_newtype n t x : de_value (TNewtype n t) x = rmap SNewtype (de_value t x). Proof. reflexivity. Qed.
Lemma dv_enum_str n vs s : de_value (TEnum n vs) (VStr s) = find_name de_unit_only (Err EDe) s vs 0.
Proof. reflexivity. Qed.
Lemma dv_enum_tab n vs k y : de_value (TEnum n vs) (VTab [(k, y)]) =
  find_name (fun i var => rmap (SVariant i) (de_payload var y)) (Err EDe) k vs 0.
Proof. reflexivity. Qed.
Lemma dp_newtype t y : de_payload (VNewtype t) y = de_value t y. Proof. reflexivity. Qed.
Lemma dp_tuple ts xs : de_payload (VTuple ts) (VArr xs) =
  if Nat.eqb (length xs) (length ts) then rmap (fun r => SSeq (fst r)) (de_pos de_value (fun t' => t') ts xs) else Err EDe.
Proof. reflexivity. Qed.
Lemma dp_struct fs es : de_payload (VStruct fs) (VTab es) =
  if struct_keys_ok (map fst fs) es then rmap SRec (de_struct_map de_value fs es) else Err EDe.
Proof. reflexivity. Qed.
Lemma dk_newtype n t k : de_key (TNewtype n t) k = rmap SNewtype (de_key t k). Proof. reflexivity. Qed.
Lemma dk_enum n vs k : de_key (TEnum n vs) k = find_name de_unit_only (Err EDe) k vs 0. Proof. reflexivity. Qed.
Lemma sk_newtype n t v : ser_key (TNewtype n t) (SNewtype v) = ser_key t v. Proof. reflexivity. Qed.
Definition key_variant (nv : bytes * variant) : result bytes :=
  match snd nv with VUnit => Ok (fst nv) | _ => Err EKeyNotString end.
Lemma sk_enum n vs i p : ser_key (TEnum n vs) (SVariant i p) = pick key_variant (Err EBadCase) vs i.
Proof. reflexivity. Qed.
Definition key_text_variant (nv : bytes * variant) : option bytes :=
  match snd nv with VUnit => Some (fst nv) | _ => None end.
Lemma kt_newtype n t v : key_text (TNewtype n t) (SNewtype v) = key_text t v. Proof. reflexivity. Qed.
Lemma kt_enum n vs i p : key_text (TEnum n vs) (SVariant i p) = pick key_text_variant None vs i. Proof. reflexivity. Qed.
