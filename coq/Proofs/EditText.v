(* Proofs/EditText.v — property C08, from identical reprs to identical PRINTED fragments.

   Part 1 (this file, sections A-C): what Model/Encode.v prints for one entry is a function of a
   small piece of data, the `frag` of the entry:
     FLine kp v     a key/value line of a table section: the key path kp inside the section (the keys
                    of the dotted tables above it and its own key, as STORED: repr + decor) and the whole
                    value v (repr, decor, and for arrays / inline tables everything inside)
     FHead hp d a   a [header] / [[header]] line: the keys from the root, the table's decor, is_array
   `frag_at p` reads the frag of the entry at path p off the tree, following exactly the rules by
   which Encode.v's table_values / nested_tables assign entries to sections (a non-dotted table, an
   array-of-tables element or the root starts a section; a dotted table extends the key path).
   `step_fragment`: an applicable operation leaves the frag of every entry it does not touch
   IDENTICAL — hence (entry_fragment / header_fragment below) the printed bytes of that entry.

   Part 2 (sections D-E): `display_document` is the concatenation, in visiting order, of header
   fragments and entry fragments (`display_document_sections`), and every FLine frag of the tree is
   printed: `entry_fragment kp v` occurs in `display_document` (`line_printed`). *)
From TV Require Import Base.Prelude Gen.Consts Model.Tree Model.Encode.
From TV Require Import Spec.EditSpec Model.Edit Proofs.EditRefine Proofs.EditVerbatim.
From TV Require Import Proofs.KvFacts.
Require Import Lia.

(** * A. The fragment of an entry *)

Inductive frag : Set :=
| FLine (kp : list key) (v : value)
| FHead (hp : list key) (d : decor) (arr : bool).

Definition is_dotted_inline (v : value) : bool :=
  match v with VInline _ _ _ true _ _ => true | _ => false end.

(* k0: the key the current item is stored under (None: the root / an array-of-tables element);
   kp: the key path inside the current section down to (not including) the current item;
   hp: the keys from the root down to (not including) the current item *)
Fixpoint frag_at (p : path) (k0 : option key) (kp hp : list key) (it : item) : option frag :=
  match p with
  | [] =>
    match it with
    | IValue v =>
      match k0 with
      | Some k' => if is_dotted_inline v then None else Some (FLine (kp ++ [k']) v)
      | None => None
      end
    | ITable (Tbl _ d _ dotted _ _) =>
      if dotted then None else
      match k0 with
      | Some k' => Some (FHead (hp ++ [k']) d false)
      | None => match hp with [] => None | _ => Some (FHead hp d true) end
      end
    | _ => None
    end
  | SKey k :: p' =>
    match it with
    | ITable (Tbl items _ _ dotted _ _) =>
      match k0 with
      | Some k' =>
        match kv_get items k with
        | Some (k1, i) => frag_at p' (Some k1) (if dotted then kp ++ [k'] else []) (hp ++ [k']) i
        | None => None
        end
      | None =>
        if dotted then None else
        match kv_get items k with
        | Some (k1, i) => frag_at p' (Some k1) [] hp i
        | None => None
        end
      end
    | _ => None
    end
  | SIdx n :: p' =>
    match it with
    | IAot ts _ =>
      match k0 with
      | Some k' =>
        match nth_error ts n with
        | Some e => frag_at p' None [] (hp ++ [k']) (ITable e)
        | None => None
        end
      | None => None
      end
    | _ => None
    end
  end.

Definition doc_frag (t : tbl) (p : path) : option frag := frag_at p None [] [] (ITable t).

Definition is_head (e : frag) : bool := match e with FHead _ _ _ => true | FLine _ _ => false end.

(* an operation at a node: which relative paths keep their line (U) / their header (UH) *)
Definition keepsL (f : item -> option item) (U UH : path -> bool) (R : path -> path) : Prop :=
  forall i i', f i = Some i' ->
  forall q k0 kp hp e, frag_at q k0 kp hp i = Some e ->
    (if is_head e then UH q else U q) = true ->
    frag_at (R q) k0 kp hp i' = Some e.

Definition UL_at (P : path) (U : path -> bool) (p : path) : bool :=
  match path_strip P p with Some q => U q | None => negb (is_prefix p P) end.
Definition UH_at (P : path) (UH : path -> bool) (p : path) : bool :=
  match path_strip P p with Some q => UH q | None => true end.

(** * B. Lifting along the path *)

Lemma own_tbl_inv i' m d im dt p sp :
  own i' = own (ITable (Tbl m d im dt p sp)) -> exists m', i' = ITable (Tbl m' d im dt p sp).
Proof.
  destruct i' as [|[| |]|[m' d' im' dt' p' sp']|]; simpl; intro H; try discriminate.
  injection H as -> -> -> -> ->. exists m'. reflexivity.
Qed.
Lemma own_aot_inv i' ts sp : own i' = own (IAot ts sp) -> exists ts', i' = IAot ts' sp.
Proof.
  destruct i' as [|[| |]|[m' d' im' dt' p' sp']|ts' sp']; simpl; intro H; try discriminate.
  injection H as ->. exists ts'. reflexivity.
Qed.

Lemma is_prefix_nil P : is_prefix [] P = true.
Proof. reflexivity. Qed.

Lemma UL_at_cons s P U q : UL_at (s :: P) U (s :: q) = UL_at P U q.
Proof. unfold UL_at, is_prefix. simpl. rewrite seg_eqb_refl. reflexivity. Qed.
Lemma UH_at_cons s P UH q : UH_at (s :: P) UH (s :: q) = UH_at P UH q.
Proof. unfold UH_at. simpl. rewrite seg_eqb_refl. reflexivity. Qed.

Lemma at_path_keepsL P f U UH R :
  keepsL f U UH R -> keepsL (at_path P f) (UL_at P U) (UH_at P UH) (R_at P R).
Proof.
  intro Hf. induction P as [|s P IH].
  - intros i i' H q k0 kp hp e He Hu. unfold UL_at, UH_at, R_at in *. simpl in *. eapply Hf; eauto.
  - intros it it' H q k0 kp hp e He Hu.
    destruct q as [|s2 q].
    + (* the node is an ancestor of the place: only its header survives *)
      unfold R_at, UL_at, UH_at in *. simpl in He, Hu |- *.
      destruct it as [|v|[m d im dt pos sp]|]; try discriminate.
      * destruct k0; [|discriminate]. destruct (is_dotted_inline v); [discriminate|].
        injection He as <-. simpl in Hu. discriminate.
      * assert (O : own it' = own (ITable (Tbl m d im dt pos sp))).
        { destruct s as [k|n].
          - exact (proj1 (at_path_key_shape _ _ _ _ _ H)).
          - exact (proj1 (at_path_idx_shape _ _ _ _ _ H)). }
        destruct (own_tbl_inv _ _ _ _ _ _ _ O) as (m' & ->). exact He.
    + destruct (seg_eqb s s2) eqn:Es.
      * (* same first step: below the changed child *)
        apply seg_eqb_eq in Es. subst s2. rewrite R_at_cons. rewrite UL_at_cons, UH_at_cons in Hu.
        destruct s as [k|n].
        -- destruct (at_path_key_shape _ _ _ _ _ H) as (O & _ & _ & items & items' & K & K' & _ & k1 & i & i' & G & G' & A).
           destruct it as [|v|[m d im dt pos sp]|]; try discriminate.
           destruct (own_tbl_inv _ _ _ _ _ _ _ O) as (m' & ->).
           simpl in K, K'. injection K as <-. injection K' as <-.
           simpl in He |- *. rewrite G in He. rewrite G'.
           destruct k0 as [k'|]; [|destruct dt; [discriminate|]]; apply (IH i i' A q (Some k1) _ _ e He Hu).
        -- destruct (at_path_idx_shape _ _ _ _ _ H) as (O & _ & _ & l & l' & K & K' & _ & i & i' & G & G' & A).
           destruct it as [|v|[m d im dt pos sp]|ts sp]; try discriminate.
           destruct (own_aot_inv _ _ _ O) as (ts' & ->).
           simpl in K, K'. injection K as <-. injection K' as <-.
           rewrite nth_error_map_ITable in G, G'.
           simpl in He |- *. destruct k0 as [k'|]; [|discriminate].
           destruct (nth_error ts n) as [e0|]; [|discriminate]. simpl in G. injection G as <-.
           destruct (nth_error ts' n) as [e1|]; [|discriminate]. simpl in G'. injection G' as <-.
           apply (IH _ _ A q None _ _ e He Hu).
      * (* another child: unchanged *)
        rewrite (R_at_other _ _ _ _ _ Es).
        destruct s as [k|n].
        -- destruct (at_path_key_shape _ _ _ _ _ H) as (O & E1 & E2 & items & items' & K & K' & Oth & _).
           destruct s2 as [k2|n2].
           ++ destruct it as [|v|[m d im dt pos sp]|]; try discriminate.
              destruct (own_tbl_inv _ _ _ _ _ _ _ O) as (m' & ->).
              simpl in K, K'. injection K as <-. injection K' as <-.
              simpl in He |- *. rewrite (Oth k2 Es). exact He.
           ++ destruct it as [|v|[m d im dt pos sp]|ts sp]; try discriminate.
        -- destruct (at_path_idx_shape _ _ _ _ _ H) as (O & E1 & E2 & l & l' & K & K' & Oth & _).
           destruct s2 as [k2|n2].
           ++ destruct it as [|v|[m d im dt pos sp]|ts sp]; try discriminate.
           ++ destruct it as [|v|[m d im dt pos sp]|ts sp]; try discriminate.
              destruct (own_aot_inv _ _ _ O) as (ts' & ->).
              simpl in K, K'. injection K as <-. injection K' as <-.
              assert (N : n2 <> n) by (intro; subst; simpl in Es; rewrite Nat.eqb_refl in Es; discriminate).
              pose proof (Oth n2 N) as On. rewrite !nth_error_map_ITable in On.
              simpl in He |- *. destruct k0 as [k'|]; [|discriminate].
              destruct (nth_error ts n2) as [e0|]; [|discriminate].
              destruct (nth_error ts' n2) as [e1|]; simpl in On; [|discriminate].
              injection On as ->. exact He.
Qed.

(** * C. The operations at their node *)

Definition okey (k : bytes) (q : path) : bool :=
  match q with SKey k2 :: _ => negb (bytes_eqb k k2) | _ => false end.
Definition okeyH (k : bytes) (q : path) : bool :=
  match q with [] => true | SKey k2 :: _ => negb (bytes_eqb k k2) | _ => false end.
Definition no_path (q : path) : bool := false.
Definition any_path (q : path) : bool := true.
Definition nonnil (q : path) : bool := match q with [] => false | _ => true end.
Definition oidx (n : nat) (q : path) : bool :=
  match q with SIdx m :: _ => negb (Nat.eqb n m) | _ => false end.
Definition isidx (q : path) : bool := match q with SIdx _ :: _ => true | _ => false end.

(* a value node has one fragment: its own line *)
Lemma frag_value_only q k0 kp hp v e (U UH : path -> bool) :
  frag_at q k0 kp hp (IValue v) = Some e -> U [] = false ->
  (if is_head e then UH q else U q) = true -> False.
Proof.
  intros He Hn Hu. destruct q as [|[k|n] q]; simpl in He; try discriminate.
  destruct k0; [|discriminate]. destruct (is_dotted_inline v); [discriminate|].
  injection He as <-. simpl in Hu. congruence.
Qed.

Lemma keepsL_value_node f R :
  (forall i i', f i = Some i' -> exists v, i = IValue v) -> keepsL f no_path any_path R.
Proof.
  intros Hv i i' H q k0 kp hp e He Hu. destruct (Hv _ _ H) as (v & ->).
  exfalso. eapply (frag_value_only q k0 kp hp v e no_path any_path); eauto.
Qed.

Lemma keepsL_items (f : item -> option item) (g : kvs -> kvs) k :
  on_items f g -> (forall m k2, bytes_eqb k k2 = false -> kv_get (g m) k2 = kv_get m k2) ->
  keepsL f (okey k) (okeyH k) ident.
Proof.
  intros Hs Hg i i' H q k0 kp hp e He Hu. unfold ident. specialize (Hs _ _ H).
  destruct i as [|[| |m pre im dt d sp]|[m d im dt p sp]|]; try contradiction; subst i'.
  - exfalso. eapply (frag_value_only q k0 kp hp _ e (okey k) (okeyH k)); eauto.
  - destruct q as [|[k2|n] q]; simpl in He |- *; [exact He| |discriminate].
    assert (N : bytes_eqb k k2 = false).
    { destruct (is_head e); simpl in Hu; destruct (bytes_eqb k k2); simpl in Hu; congruence. }
    rewrite (Hg m k2 N). exact He.
Qed.

Lemma op_insert_keepsL k v : keepsL (op_insert k v) (okey k) (okeyH k) ident.
Proof. exact (keepsL_items _ _ k (op_insert_on_items k v) (fun m k2 => kv_get_items_insert_other m k k2 _)). Qed.
Lemma op_insert_item_keepsL k x : keepsL (op_insert_item k x) (okey k) (okeyH k) ident.
Proof. exact (keepsL_items _ _ k (op_insert_item_on_items k x) (fun m k2 => kv_get_items_insert_other m k k2 x)). Qed.
Lemma op_remove_keepsL k : keepsL (op_remove k) (okey k) (okeyH k) ident.
Proof. exact (keepsL_items _ _ k (op_remove_on_items k) (fun m k2 => kv_get_remove_other m k k2)). Qed.

Lemma op_slot_keepsL k conv : keepsL (op_slot k conv) (okey k) (okeyH k) ident.
Proof.
  intros i i' H q k0 kp hp e He Hu. unfold ident.
  destruct i as [| |[items d im dt p sp]|]; simpl in H; try discriminate.
  destruct (kv_upd k _ items) as [items'|] eqn:E; simpl in H; [|discriminate]. injection H as <-.
  destruct q as [|[k2|n] q]; simpl in He |- *; [exact He| |discriminate].
  assert (N : bytes_eqb k k2 = false).
  { destruct (is_head e); simpl in Hu; destruct (bytes_eqb k k2); simpl in Hu; congruence. }
  rewrite (kv_upd_get_other _ _ _ _ _ E N). exact He.
Qed.

(* -- arrays: nothing below an array is a line of its own -- *)
Lemma op_arr_push_keepsL v : keepsL (op_arr_push v) no_path any_path ident.
Proof.
  apply keepsL_value_node. intros i i' H.
  destruct i as [|[|vals tr c d sp|]| |]; simpl in H; try discriminate. eexists; reflexivity.
Qed.
Lemma op_arr_insert_keepsL n v : keepsL (op_arr_insert n v) no_path any_path ident.
Proof.
  apply keepsL_value_node. intros i i' H.
  destruct i as [|[|vals tr c d sp|]| |]; simpl in H; try discriminate. eexists; reflexivity.
Qed.
Lemma op_arr_replace_keepsL n v : keepsL (op_arr_replace n v) no_path any_path ident.
Proof.
  apply keepsL_value_node. intros i i' H.
  destruct i as [|[|vals tr c d sp|]| |]; simpl in H; try discriminate. eexists; reflexivity.
Qed.
Lemma op_arr_remove_keepsL n : keepsL (op_arr_remove n) no_path any_path ident.
Proof.
  apply keepsL_value_node. intros i i' H.
  destruct i as [|[|vals tr c d sp|]| |]; simpl in H; try discriminate. eexists; reflexivity.
Qed.

(* -- arrays of tables -- *)
Lemma op_aot_push_keepsL : keepsL op_aot_push isidx isidx ident.
Proof.
  intros i i' H q k0 kp hp e He Hu. unfold ident.
  destruct i as [| | |ts sp]; simpl in H; try discriminate. injection H as <-.
  destruct q as [|[k2|n] q]; simpl in He |- *; try discriminate.
  destruct k0 as [k'|]; [|discriminate].
  destruct (nth_error ts n) as [e0|] eqn:G; [|discriminate].
  rewrite nth_error_app1 by (apply nth_error_Some; congruence). rewrite G. exact He.
Qed.

Lemma op_aot_remove_keepsL n : keepsL (op_aot_remove n) (oidx n) (oidx n) (shift_down n).
Proof.
  intros i i' H q k0 kp hp e He Hu.
  destruct i as [| | |ts sp]; simpl in H; try discriminate.
  destruct (vec_remove n ts) as [[y ts']|] eqn:E; simpl in H; [|discriminate]. injection H as <-.
  destruct q as [|[k2|m] q]; simpl in He |- *; try discriminate.
  destruct k0 as [k'|]; [|discriminate].
  assert (N : m <> n).
  { intro; subst. destruct (is_head e); simpl in Hu; rewrite Nat.eqb_refl in Hu; discriminate. }
  rewrite (vec_remove_nth _ _ _ _ _ E N). exact He.
Qed.

(* -- sort / sort_by: only tables have lines of their own below them -- *)
Lemma sort_frag srt tsort ok : tsort_gets srt tsort ok -> forall t, ok t = true -> forall q k0 kp hp,
  frag_at q k0 kp hp (ITable (tsort t)) = frag_at q k0 kp hp (ITable t).
Proof.
  intros [Hs Hg].
  apply (dotted_ind (fun _ => True) (fun t => ok t = true -> forall q k0 kp hp,
                                       frag_at q k0 kp hp (ITable (tsort t)) = frag_at q k0 kp hp (ITable t)));
    try (intros; exact I).
  intros items d im dt p sp IH Hok q k0 kp hp. destruct (Hg _ _ _ _ _ _ Hok) as [Hget Hc].
  rewrite Hs. destruct q as [|[k|n] q]; [reflexivity| |reflexivity].
  simpl frag_at. rewrite Hget by apply kkeys_b_map. unfold tchild. rewrite kv_get_map.
  destruct (kv_get items k) as [[k1 i]|] eqn:G; [|reflexivity].
  specialize (IH _ _ (kv_get_In _ _ _ _ G)). specialize (Hc _ _ (kv_get_In _ _ _ _ G)).
  assert (E : forall kp' hp', frag_at q (Some k1) kp' hp' (tchild_item tsort i) = frag_at q (Some k1) kp' hp' i).
  { intros kp' hp'. destruct i as [|v|[items0 d0 im0 [|] p0 sp0]|]; try reflexivity. apply IH. exact Hc. }
  destruct k0 as [k'|]; [apply E|]. destruct dt; [reflexivity|apply E].
Qed.

Lemma sort_op_keepsL srt tsort okt okv vsort :
  tsort_gets srt tsort okt -> keepsL (sort_op okt okv tsort vsort) nonnil any_path ident.
Proof.
  intros Hs i i' H q k0 kp hp e He Hu. unfold ident.
  destruct i as [|[| |items pre im dt d sp]|t|]; simpl in H; try discriminate.
  - exfalso. eapply (frag_value_only q k0 kp hp _ e nonnil any_path); eauto.
  - destruct (okt t) eqn:Hok; [|discriminate]. injection H as <-. rewrite (sort_frag _ _ _ Hs t Hok). exact He.
Qed.

Lemma op_sort_keepsL : keepsL op_sort nonnil any_path ident.
Proof.
  intros i i' H. rewrite op_sort_eq in H. revert i i' H. exact (sort_op_keepsL _ _ _ _ _ sort_values_tbl_gets).
Qed.
Lemma op_sort_by_keepsL cm : keepsL (op_sort_by cm) nonnil any_path ident.
Proof.
  intros i i' H. rewrite op_sort_by_eq in H. revert i i' H. exact (sort_op_keepsL _ _ _ _ _ (sort_by_tbl_gets cm)).
Qed.

(* -- fmt -- *)
Lemma kv_get_decorate_tbl m k :
  kv_get (decorate_items m) k
  = match kv_get m k with
    | Some (k', IValue v) => Some (mkKey (k_key k') (k_repr k') decor_default decor_default, IValue (value_clear_decor v))
    | x => x
    end.
Proof.
  induction m as [|[k1 i] m IH]; simpl; [reflexivity|].
  destruct i as [|v| |]; simpl; destruct (bytes_eqb (k_key k1) k); try reflexivity; exact IH.
Qed.

Lemma frag_value_deeper s q k0 kp hp v : frag_at (s :: q) k0 kp hp (IValue v) = None.
Proof. destruct s; reflexivity. Qed.

Lemma op_fmt_keepsL : keepsL op_fmt deeper any_path ident.
Proof.
  intros i i' H q k0 kp hp e He Hu. unfold ident.
  destruct i as [|[|vals tr c d sp|items pre im dt d sp]|[items d im dt p sp]|]; simpl in H; try discriminate;
    injection H as <-;
    try (exfalso; eapply (frag_value_only q k0 kp hp _ e deeper any_path); eauto; fail).
  destruct q as [|[k|n] q]; simpl in He |- *; [exact He| |discriminate].
  rewrite kv_get_decorate_tbl.
  destruct (kv_get items k) as [[k1 i]|]; [|destruct k0; [discriminate|destruct dt; discriminate]].
  destruct i as [|v|t|ts sp0]; try exact He.
  (* a direct value child: its line is reformatted; nothing deeper is a line *)
  destruct q as [|s q].
  - assert (Hl : is_head e = false).
    { destruct k0 as [k'|]; [|destruct dt; [discriminate|]]; simpl in He;
        destruct (is_dotted_inline v); try discriminate; injection He as <-; reflexivity. }
    rewrite Hl in Hu. discriminate.
  - destruct k0 as [k'|]; [|destruct dt; [discriminate|]]; rewrite frag_value_deeper in He; discriminate.
Qed.

(* -- IndexMut -- *)
Definition off_keys (ks : list bytes) (q : path) : bool :=
  negb (is_prefix (map SKey ks) q) && negb (is_prefix q (map SKey ks)).
Definition not_below (ks : list bytes) (q : path) : bool := negb (is_prefix (map SKey ks) q).

Lemma iset_keepsL ks x : forall it it',
  iset ks x it = Some it' ->
  forall q k0 kp hp e, frag_at q k0 kp hp it = Some e ->
    (if is_head e then not_below ks q else off_keys ks q) = true ->
    frag_at q k0 kp hp it' = Some e.
Proof.
  induction ks as [|k ks IH]; intros it it' H q k0 kp hp e He Hu.
  - destruct (is_head e); unfold not_below, off_keys in Hu; simpl in Hu; discriminate.
  - destruct it as [|[s r d|vals tr c d sp|items pre im dt d sp]|[items d im dt p sp]|ts sp]; try discriminate.
    + destruct q as [|[k2|n] q]; simpl in He; discriminate.
    + (* an inline table on the way: its own line contains the assignment *)
      destruct q as [|[k2|n] q]; simpl in He; try discriminate.
      destruct k0; [|discriminate]. destruct dt; simpl in He; [discriminate|]. injection He as <-.
      simpl in Hu. unfold off_keys, is_prefix in Hu. simpl in Hu. discriminate.
    + rewrite iset_tbl in H. destruct (iset ks x _) as [slot'|] eqn:E; simpl in H; [|discriminate]. injection H as <-.
      destruct q as [|[k2|n] q]; simpl in He |- *; [exact He| |discriminate].
      assert (Hstep : forall kp' hp',
                 match kv_get items k2 with Some (k1, i) => frag_at q (Some k1) kp' hp' i | None => None end = Some e ->
                 match kv_get (kv_set (fst (entry_or_none items k)) k slot') k2 with
                 | Some (k1, i) => frag_at q (Some k1) kp' hp' i
                 | None => None
                 end = Some e).
      { intros kp' hp' He'. destruct (bytes_eqb k k2) eqn:Ek.
        - apply bytes_eqb_eq in Ek. subst k2.
          destruct (kv_get items k) as [[k1 i]|] eqn:G; [|discriminate].
          assert (Hi : i <> INone).
          { intro; subst i. destruct q as [|[k2|n] q]; simpl in He'; discriminate. }
          rewrite (entry_or_none_same _ _ _ _ G Hi) in E |- *. cbn [fst snd] in E |- *.
          rewrite (kv_get_set_same _ _ _ _ _ G).
          apply (IH _ _ E q (Some k1) kp' hp' e He').
          destruct (is_head e); unfold not_below, off_keys, is_prefix in *; simpl in Hu;
            rewrite bytes_eqb_refl in Hu; exact Hu.
        - rewrite kv_get_set_other, entry_or_none_fst_other by exact Ek. exact He'. }
      destruct k0 as [k'|]; [apply Hstep; exact He|]. destruct dt; [discriminate|apply Hstep; exact He].
Qed.

(* -- the step -- *)
(* where an operation works (P); which paths relative to P keep their line (U) / header (UH); where they go (R) *)
Definition op_regionL (o : op) : path * (path -> bool) * (path -> bool) * (path -> path) :=
  match o with
  | OInsert p k _ | OInsertTable p k | OInsertAot p k | ORemove p k
  | OMakeValue p k | OIntoTable p k | OIntoAot p k => (p, okey k, okeyH k, ident)
  | OArrPush p _ | OArrInsert p _ _ | OArrReplace p _ _ | OArrRemove p _ => (p, no_path, any_path, ident)
  | OAotPush p => (p, isidx, isidx, ident)
  | OAotRemove p i => (p, oidx i, oidx i, shift_down i)
  | OSort p | OSortBy p _ => (p, nonnil, any_path, ident)
  | OFmt p => (p, deeper, any_path, ident)
  | OISet ks _ => ([], off_keys ks, not_below ks, ident)
  end.

(* the entry at p (a key/value line if head = false, a header if head = true) is not touched by o:
   it is not the edited entry, not inside it, and — for a line — the edit is not inside its value *)
Definition untouched_frag (o : op) (p : path) (head : bool) : bool :=
  match op_regionL o with (P, U, UH, _) => if head then UH_at P UH p else UL_at P U p end.
Definition reloc_frag (o : op) (p : path) : path :=
  match op_regionL o with (P, _, _, R) => R_at P R p end.

Theorem step_fragment : forall t o t' p e,
  apply o t = Some t' -> doc_frag t p = Some e -> untouched_frag o p (is_head e) = true ->
  doc_frag t' (reloc_frag o p) = Some e.
Proof.
  intros t o t' p e H He Hu. unfold apply in H.
  destruct (op_fun o) as [P f] eqn:EO. apply as_tbl_abs in H.
  unfold doc_frag, untouched_frag, reloc_frag in *.
  assert (K : forall U UH R, keepsL f U UH R -> op_regionL o = (P, U, UH, R) ->
                             frag_at (match op_regionL o with (P, _, _, R) => R_at P R p end) None [] [] (ITable t') = Some e).
  { intros U UH R Hk Er. rewrite Er in *.
    apply (at_path_keepsL P f U UH R Hk _ _ H p None [] [] e He).
    destruct (is_head e); exact Hu. }
  destruct o as [q k v|q k|q k|q k|q v|q i v|q i v|q i|q|q i|q|q|q k|q k|q k|ks x|q cm];
    simpl in EO; injection EO as <- <-.
  - exact (K _ _ _ (op_insert_keepsL k v) eq_refl).
  - exact (K _ _ _ (op_insert_item_keepsL k _) eq_refl).
  - exact (K _ _ _ (op_insert_item_keepsL k _) eq_refl).
  - exact (K _ _ _ (op_remove_keepsL k) eq_refl).
  - exact (K _ _ _ (op_arr_push_keepsL v) eq_refl).
  - exact (K _ _ _ (op_arr_insert_keepsL i v) eq_refl).
  - exact (K _ _ _ (op_arr_replace_keepsL i v) eq_refl).
  - exact (K _ _ _ (op_arr_remove_keepsL i) eq_refl).
  - exact (K _ _ _ op_aot_push_keepsL eq_refl).
  - exact (K _ _ _ (op_aot_remove_keepsL i) eq_refl).
  - exact (K _ _ _ op_sort_keepsL eq_refl).
  - exact (K _ _ _ op_fmt_keepsL eq_refl).
  - exact (K _ _ _ (op_slot_keepsL k _) eq_refl).
  - exact (K _ _ _ (op_slot_keepsL k _) eq_refl).
  - exact (K _ _ _ (op_slot_keepsL k _) eq_refl).
  - apply (K (off_keys ks) (not_below ks) ident); [|reflexivity].
    intros i i' Hi q0 k0 kp hp e0 He0 Hu0. unfold ident.
    destruct ks as [|k ks]; [discriminate|]. exact (iset_keepsL _ _ _ _ Hi q0 k0 kp hp e0 He0 Hu0).
  - exact (K _ _ _ (op_sort_by_keepsL cm) eq_refl).
Qed.

(* along a history *)
Fixpoint untouched_frag_all (ops : list op) (p : path) (head : bool) : bool :=
  match ops with
  | [] => true
  | o :: tl => untouched_frag o p head && untouched_frag_all tl (reloc_frag o p) head
  end.
Fixpoint reloc_frag_all (ops : list op) (p : path) : path :=
  match ops with
  | [] => p
  | o :: tl => reloc_frag_all tl (reloc_frag o p)
  end.

Theorem history_fragment : forall ops t t' p e,
  apply_seq ops t = Some t' -> doc_frag t p = Some e -> untouched_frag_all ops p (is_head e) = true ->
  doc_frag t' (reloc_frag_all ops p) = Some e.
Proof.
  induction ops as [|o ops IH]; intros t t' p e H He Hu; simpl in *.
  - injection H as <-. exact He.
  - destruct (apply o t) as [t1|] eqn:E; [|discriminate].
    apply andb_true_iff in Hu as [Hu1 Hu2].
    apply (IH t1 t' (reloc_frag o p) e H); [|exact Hu2].
    exact (step_fragment _ _ _ _ _ E He Hu1).
Qed.

(** * D. What Encode.v prints, fragment by fragment *)

(* one key/value line of a table section (the body loop of encode.rs: visit_table) *)
Definition entry_fragment (kp : list key) (v : value) : bytes :=
  encode_key_path kp DEFAULT_KEY_DECOR ++ [x3d]
  ++ encode_value (S (value_size v)) v DEFAULT_VALUE_DECOR ++ [x0a].

(* one [header] / [[header]] line; `first` = no table has been printed yet (default decor) *)
Definition header_text (hp : list key) (d : decor) (arr first : bool) : bytes :=
  let default := if first then ([], snd DEFAULT_TABLE_DECOR) else DEFAULT_TABLE_DECOR in
  decor_prefix d (fst default) ++ encode_key_comments hp ++ (if arr then [x5b; x5b] else [x5b])
  ++ encode_header_key_path hp DEFAULT_KEY_PATH_DECOR ++ (if arr then [x5d; x5d] else [x5d])
  ++ decor_suffix d (snd default) ++ [x0a].

(* the printed bytes of a fragment *)
Definition frag_text (e : frag) (first : bool) : bytes :=
  match e with
  | FLine kp v => entry_fragment kp v
  | FHead hp d arr => header_text hp d arr first
  end.

(* the key/value lines of a section, in printing order (Table::get_values) *)
Definition section_lines (t : tbl) : list (list key * value) := table_values (S (tbl_size t)) [] (t_items t).
Definition no_lines (t : tbl) : bool := match section_lines t with [] => true | _ => false end.

(* the header line of a section: none for the root and for an implicit table without lines *)
Definition header_fragment (t : tbl) (path : list key) (is_array first : bool) : bytes :=
  match path with
  | [] => []
  | _ => if is_array then header_text path (t_decor t) true first
         else if negb (t_implicit t && no_lines t) then header_text path (t_decor t) false first
         else []
  end.
Definition next_first (t : tbl) (path : list key) (is_array first : bool) : bool :=
  match path with
  | [] => if no_lines t then first else false
  | _ => if is_array then false else if negb (t_implicit t && no_lines t) then false else first
  end.
Definition section_text (t : tbl) (path : list key) (is_array first : bool) : bytes :=
  header_fragment t path is_array first
  ++ flat_map (fun x => entry_fragment (fst x) (snd x)) (section_lines t).

Lemma visit_table_eq t path is_array first :
  visit_table t path is_array first = (section_text t path is_array first, next_first t path is_array first).
Proof.
  unfold visit_table, section_text, header_fragment, next_first, no_lines, section_lines, header_text, entry_fragment.
  assert (E : forall l : list (list key * value),
             flat_map (fun '(kp, v) => encode_key_path kp DEFAULT_KEY_DECOR ++ [x3d]
                                       ++ encode_value (S (value_size v)) v DEFAULT_VALUE_DECOR ++ [x0a]) l
             = flat_map (fun x => encode_key_path (fst x) DEFAULT_KEY_DECOR ++ [x3d]
                                  ++ encode_value (S (value_size (snd x))) (snd x) DEFAULT_VALUE_DECOR ++ [x0a]) l).
  { intro l. apply flat_map_ext. intros [kp v]. reflexivity. }
  rewrite E. clear E.
  generalize (table_values (S (tbl_size t)) [] (t_items t)). intro ch.
  destruct path as [|k0 path]; [destruct ch; reflexivity|].
  destruct is_array; [reflexivity|].
  destruct (t_implicit t); destruct ch; reflexivity.
Qed.

(* the sections of a document in printing order: (position, (table, header path, is_array)) *)
Definition doc_sections (root : tbl) : list (N * (tbl * list key * bool)) :=
  Encode.stable_sort (assign_positions 0 (nested_tables (S (tbl_size root)) root [] false)).

Fixpoint sections_text (l : list (N * (tbl * list key * bool))) (first : bool) : bytes :=
  match l with
  | [] => []
  | (_, (t, p, a)) :: tl => section_text t p a first ++ sections_text tl (next_first t p a first)
  end.

Lemma visit_tables_eq l first : visit_tables l first = sections_text l first.
Proof.
  revert first. induction l as [|[pos [[t p] a]] l IH]; intro first; [reflexivity|].
  simpl. rewrite visit_table_eq. rewrite IH. reflexivity.
Qed.

(* (a): the printed document is the concatenation, section by section in printing order, of
   the header fragment and the entry fragments of the section *)
Theorem display_document_sections root trailing :
  display_document root trailing
  = decor_prefix (t_decor root) (fst DEFAULT_ROOT_DECOR)
    ++ sections_text (doc_sections root) true
    ++ decor_suffix (t_decor root) (snd DEFAULT_ROOT_DECOR)
    ++ raw_encode trailing [].
Proof. unfold display_document, doc_sections. rewrite visit_tables_eq. reflexivity. Qed.

(** * E. Every line fragment of the tree is printed *)

Definition infix {A} (a b : list A) : Prop := exists pre post, b = pre ++ a ++ post.

Lemma infix_refl {A} (a : list A) : infix a a.
Proof. exists [], []. rewrite app_nil_r. reflexivity. Qed.
Lemma infix_app_r {A} (a b c : list A) : infix a b -> infix a (b ++ c).
Proof. intros (x & y & ->). exists x, (y ++ c). rewrite !app_assoc. reflexivity. Qed.
Lemma infix_app_l {A} (a b c : list A) : infix a b -> infix a (c ++ b).
Proof. intros (x & y & ->). exists (c ++ x), y. rewrite !app_assoc. reflexivity. Qed.
Lemma infix_trans {A} (a b c : list A) : infix a b -> infix b c -> infix a c.
Proof.
  intros (x & y & ->) (x' & y' & ->). exists (x' ++ x), (y ++ y'). rewrite !app_assoc. reflexivity.
Qed.
Lemma infix_flat_map {A B} (f : A -> list B) x l : In x l -> infix (f x) (flat_map f l).
Proof.
  induction l as [|y l IH]; simpl; [contradiction|]. intros [->|H].
  - apply infix_app_r, infix_refl.
  - apply infix_app_l, IH, H.
Qed.

(* -- the bodies of the two traversals of Encode.v -- *)
Definition contrib (f : nat) (parent : list key) (kv : key * item) : list (list key * value) :=
  let path := parent ++ [fst kv] in
  match snd kv with
  | ITable (Tbl sub _ _ true _ _) => table_values f path sub
  | IValue (VInline sub _ _ true _ _) => inline_values f path sub
  | IValue v => [(path, v)]
  | _ => []
  end.
Lemma table_values_S f parent items : table_values (S f) parent items = flat_map (contrib f parent) items.
Proof. reflexivity. Qed.

Definition ncontrib (f : nat) (path : list key) (kv : key * item) : list (tbl * list key * bool) :=
  match snd kv with
  | ITable sub => nested_tables f sub (path ++ [fst kv]) false
  | IAot ts _ => flat_map (fun sub => nested_tables f sub (path ++ [fst kv]) true) ts
  | _ => []
  end.
Lemma nested_tables_S f t path arr :
  nested_tables (S f) t path arr
  = (if t_dotted t then [] else [(t, path, arr)]) ++ flat_map (ncontrib f path) (t_items t).
Proof. reflexivity. Qed.

(* -- sizes -- *)
Definition isz (items : kvs) : nat :=
  fold_right (fun kv acc => match kv with (_, i0) => item_size i0 + acc end) 0 items.
Lemma tbl_size_eq items d im dt p sp : tbl_size (Tbl items d im dt p sp) = S (isz items).
Proof. reflexivity. Qed.
Lemma isz_In k i items : In (k, i) items -> item_size i <= isz items.
Proof.
  induction items as [|[k1 i1] items IH]; simpl; [contradiction|].
  intros [H|H]; [injection H as -> ->; lia|]. specialize (IH H). lia.
Qed.
Lemma tsz_In e ts : In e ts -> tbl_size e <= fold_right (fun t acc => tbl_size t + acc) 0 ts.
Proof.
  induction ts as [|t ts IH]; simpl; [contradiction|].
  intros [->|H]; [lia|]. specialize (IH H). lia.
Qed.

(* -- a fragment belongs to some section of the traversal -- *)
(* a key/value line is among the lines of the section; a header is the section's own *)
Definition frag_in_sec (e : frag) (s : tbl * list key * bool) : Prop :=
  match e with
  | FLine kp v => In (kp, v) (section_lines (fst (fst s)))
  | FHead hp d arr => t_decor (fst (fst s)) = d /\ hp <> [] /\ snd (fst s) = hp /\ snd s = arr
  end.
(* below dotted tables a line is still a line of the section being traversed *)
Definition frag_own_line (e : frag) (l : list (list key * value)) : Prop :=
  match e with FLine kp v => In (kp, v) l | FHead _ _ _ => False end.
Lemma frag_own_line_incl e l l' : (forall x, In x l -> In x l') -> frag_own_line e l -> frag_own_line e l'.
Proof. destruct e; simpl; auto. Qed.

Lemma frag_sound : forall p k0 kp hp it e,
  frag_at p k0 kp hp it = Some e ->
  match k0 with
  | Some k' =>
    (forall f, item_size it <= f -> frag_own_line e (contrib f kp (k', it))) \/
    (exists s, frag_in_sec e s /\ forall f, item_size it <= f -> In s (ncontrib f hp (k', it)))
  | None =>
    match it with
    | ITable cur =>
      forall arr0, (p = [] -> match e with FHead _ _ arr => arr0 = arr | FLine _ _ => True end) ->
      exists s, frag_in_sec e s /\ forall f, S (tbl_size cur) <= f -> In s (nested_tables f cur hp arr0)
    | _ => False
    end
  end.
Proof.
  induction p as [|s p IH]; intros k0 kp hp it e He.
  - simpl in He. destruct it as [|v0|[m d im dt pos sp]|]; try discriminate.
    + (* the value itself *)
      destruct k0 as [k'|]; [|discriminate].
      destruct (is_dotted_inline v0) eqn:Ed; [discriminate|]. injection He as <-.
      left. intros f _. unfold contrib. simpl.
      destruct v0 as [| |sub pre im [|] d sp]; try (left; reflexivity). discriminate.
    + (* the table itself: its header *)
      destruct dt; [discriminate|]. destruct k0 as [k'|].
      * injection He as <-. right. exists (Tbl m d im false pos sp, hp ++ [k'], false). split.
        -- simpl. repeat split. intro E. apply app_eq_nil in E as [_ E]. discriminate.
        -- intros f Hle. unfold ncontrib. simpl. simpl in Hle. destruct f as [|f]; [lia|].
           rewrite nested_tables_S. simpl. left. reflexivity.
      * destruct hp as [|h hp]; [discriminate|]. injection He as <-.
        intros arr0 Ha. rewrite (Ha eq_refl). exists (Tbl m d im false pos sp, h :: hp, true). split.
        -- simpl. repeat split. discriminate.
        -- intros f Hle. destruct f as [|f]; [lia|]. rewrite nested_tables_S. simpl. left. reflexivity.
  - destruct s as [k|n]; simpl in He.
    + destruct it as [|v0|[m d im dt pos sp]|]; try discriminate.
      (* the child under k: a line of this table's own traversal, or something in a section below *)
      assert (Hchild : forall k1 i kp' hp',
                 kv_get m k = Some (k1, i) -> frag_at p (Some k1) kp' hp' i = Some e ->
                 (forall f, isz m <= f -> frag_own_line e (flat_map (contrib f kp') m)) \/
                 (exists s, frag_in_sec e s /\ forall f, isz m <= f -> In s (flat_map (ncontrib f hp') m))).
      { intros k1 i kp' hp' G Hf. pose proof (kv_get_In _ _ _ _ G) as Hin.
        pose proof (isz_In _ _ _ Hin) as Hsz.
        destruct (IH (Some k1) kp' hp' i e Hf) as [H1|(s & Hs & H2)].
        - left. intros f Hle. apply (frag_own_line_incl e (contrib f kp' (k1, i))); [|apply H1; lia].
          intros x Hx. apply in_flat_map. exists (k1, i). split; assumption.
        - right. exists s. split; [exact Hs|]. intros f Hle.
          apply in_flat_map. exists (k1, i). split; [exact Hin|]. apply H2. lia. }
      (* this table as a section of its own, holding the line *)
      assert (Hown : forall kp' sp0 ar, (forall f, isz m <= f -> frag_own_line e (flat_map (contrib f kp') m)) ->
                 kp' = [] -> frag_in_sec e (Tbl m d im dt pos sp, sp0, ar)).
      { intros kp' sp0 ar H1 ->. specialize (H1 (S (isz m)) (Nat.le_succ_diag_r _)).
        destruct e as [kp1 v|]; [|contradiction]. simpl. unfold section_lines. rewrite table_values_S. exact H1. }
      destruct k0 as [k'|].
      * destruct (kv_get m k) as [[k1 i]|] eqn:G; [|discriminate].
        destruct (Hchild k1 i _ _ eq_refl He) as [H1|(s & Hs & H2)].
        -- destruct dt.
           ++ (* a dotted table: its lines are lines of the enclosing section *)
              left. intros f Hle. unfold contrib. simpl. simpl in Hle.
              destruct f as [|f]; [lia|]. rewrite table_values_S. apply H1. unfold isz. lia.
           ++ right. exists (Tbl m d im false pos sp, hp ++ [k'], false). split; [exact (Hown _ _ _ H1 eq_refl)|].
              intros f Hle. unfold ncontrib. simpl. simpl in Hle.
              destruct f as [|f]; [lia|]. rewrite nested_tables_S. simpl. left. reflexivity.
        -- right. exists s. split; [exact Hs|]. intros f Hle.
           unfold ncontrib. simpl. simpl in Hle. destruct f as [|f]; [lia|].
           rewrite nested_tables_S. apply in_or_app. right. apply H2. unfold isz. lia.
      * destruct dt; [discriminate|].
        destruct (kv_get m k) as [[k1 i]|] eqn:G; [|discriminate].
        intros arr0 _.
        destruct (Hchild k1 i _ _ eq_refl He) as [H1|(s & Hs & H2)].
        -- exists (Tbl m d im false pos sp, hp, arr0). split; [exact (Hown _ _ _ H1 eq_refl)|].
           intros f Hle. destruct f as [|f]; [lia|]. rewrite nested_tables_S. simpl. left. reflexivity.
        -- exists s. split; [exact Hs|]. intros f Hle. simpl in Hle.
           destruct f as [|f]; [lia|]. rewrite nested_tables_S. apply in_or_app. right. apply H2. unfold isz. lia.
    + destruct it as [|v0|[m d im dt pos sp]|ts sp]; try discriminate.
      destruct k0 as [k'|]; [|discriminate].
      destruct (nth_error ts n) as [e0|] eqn:G; [|discriminate].
      assert (Ha : p = [] -> match e with FHead _ _ arr => true = arr | FLine _ _ => True end).
      { intros ->. simpl in He. destruct e0 as [m0 d1 im0 dt0 p0 sp0]. destruct dt0; [discriminate|].
        destruct (hp ++ [k']); [discriminate|]. injection He as <-. reflexivity. }
      specialize (IH None [] (hp ++ [k']) (ITable e0) e He). simpl in IH.
      destruct (IH true Ha) as (s & Hs & H2).
      right. exists s. split; [exact Hs|]. intros f Hle.
      unfold ncontrib. simpl. apply in_flat_map. exists e0. split; [eapply nth_error_In; eauto|].
      apply H2. pose proof (tsz_In e0 ts (nth_error_In _ _ G)). simpl in Hle. lia.
Qed.

(* -- from a section of the traversal to the text -- *)
Lemma assign_positions_In x l last : In x l -> exists pos, In (pos, x) (assign_positions last l).
Proof.
  revert last. induction l as [|[[t p] a] l IH]; intro last; simpl; [contradiction|].
  intros [<-|H].
  - eexists. left. reflexivity.
  - destruct (IH (match t_position t with Some q => q | None => last end) H) as (pos & Hp).
    exists pos. right. exact Hp.
Qed.

Lemma insert_sorted_In {A} (x y : N * A) l : In y (insert_sorted x l) <-> y = x \/ In y l.
Proof.
  induction l as [|z l IH]; simpl; [intuition congruence|].
  destruct (fst x <? fst z)%N; simpl; [intuition congruence|]. rewrite IH. intuition congruence.
Qed.
Lemma enc_stable_sort_In {A} (y : N * A) l : In y l -> In y (Encode.stable_sort l).
Proof.
  unfold Encode.stable_sort.
  assert (G : forall acc, In y l \/ In y acc -> In y (fold_left (fun acc x => insert_sorted x acc) l acc)).
  { induction l as [|x l IH]; intros acc H; simpl.
    - destruct H; [contradiction|assumption].
    - apply IH. destruct H as [[->|H]|H].
      + right. apply insert_sorted_In. left. reflexivity.
      + left. exact H.
      + right. apply insert_sorted_In. right. exact H. }
  intro H. apply G. left. exact H.
Qed.

Lemma sections_text_infix l pos t p a :
  In (pos, (t, p, a)) l -> forall first, exists first', infix (section_text t p a first') (sections_text l first).
Proof.
  induction l as [|[pos1 [[t1 p1] a1]] l IH]; simpl; [contradiction|].
  intros [H|H] first.
  - injection H as -> -> -> ->. exists first. apply infix_app_r, infix_refl.
  - destruct (IH H (next_first t1 p1 a1 first)) as (f' & Hi). exists f'. apply infix_app_l. exact Hi.
Qed.

(* every section of the traversal is printed *)
Lemma section_printed t trailing sec sp ar :
  In (sec, sp, ar) (nested_tables (S (tbl_size t)) t [] false) ->
  exists first, infix (section_text sec sp ar first) (display_document t trailing).
Proof.
  intro Hs. destruct (assign_positions_In _ _ 0%N Hs) as (pos & Hp). apply enc_stable_sort_In in Hp.
  destruct (sections_text_infix _ _ _ _ _ Hp true) as (first' & Hi).
  exists first'. rewrite display_document_sections. apply infix_app_l, infix_app_r. exact Hi.
Qed.

Lemma section_line_infix t p a first kp v :
  In (kp, v) (section_lines t) -> infix (entry_fragment kp v) (section_text t p a first).
Proof.
  intro H. unfold section_text. apply infix_app_l.
  exact (infix_flat_map (fun x => entry_fragment (fst x) (snd x)) (kp, v) _ H).
Qed.

(* every key/value line the tree holds (`doc_frag t p = Some (FLine kp v)`) is in the printed text *)
Theorem line_printed : forall t p kp v trailing,
  doc_frag t p = Some (FLine kp v) -> infix (entry_fragment kp v) (display_document t trailing).
Proof.
  intros t p kp v trailing H. unfold doc_frag in H.
  destruct (frag_sound p None [] [] (ITable t) _ H false (fun _ => I)) as ([[sec sp0] ar] & Hl & Hs).
  destruct (section_printed t trailing _ _ _ (Hs _ (Nat.le_refl _))) as (first' & Hi).
  eapply infix_trans; [|exact Hi]. apply section_line_infix. exact Hl.
Qed.

Lemma section_header_infix t p a first :
  infix (header_fragment t p a first) (section_text t p a first).
Proof. unfold section_text. apply infix_app_r, infix_refl. Qed.

(* the header of every table the tree holds as a section (`doc_frag t p = Some (FHead hp d arr)`) is in
   the printed text, unless the table is implicit and has no key/value line (then no header is printed) *)
Theorem header_printed : forall t p hp d arr trailing,
  doc_frag t p = Some (FHead hp d arr) ->
  exists sec, t_decor sec = d /\
    (arr = true \/ t_implicit sec && no_lines sec = false ->
     exists first, infix (header_text hp d arr first) (display_document t trailing)).
Proof.
  intros t p hp d arr trailing H. unfold doc_frag in H.
  assert (Hp0 : p = [] -> false = arr) by (intros ->; simpl in H; destruct t as [? ? ? [|] ? ?]; discriminate).
  destruct (frag_sound p None [] [] (ITable t) _ H false Hp0) as ([[sec sp0] ar] & (Hd & Hn & Hsp & Har) & Hs).
  simpl in Hd, Hsp, Har. subst sp0 ar.
  exists sec. split; [exact Hd|]. intro Hv.
  destruct (section_printed t trailing _ _ _ (Hs _ (Nat.le_refl _))) as (first' & Hi).
  exists first'. eapply infix_trans; [|exact Hi].
  assert (E : header_fragment sec hp arr first' = header_text hp d arr first').
  { unfold header_fragment. destruct hp as [|h hp]; [contradiction Hn; reflexivity|]. rewrite Hd.
    destruct arr; [reflexivity|]. destruct Hv as [Hv|Hv]; [discriminate|]. rewrite Hv. reflexivity. }
  rewrite <- E. apply section_header_infix.
Qed.

(** * F. Together: the printed text after an edit contains byte-identical lines for all untouched entries *)

Theorem verbatim_text : forall t o t' p kp v trailing trailing',
  apply o t = Some t' -> doc_frag t p = Some (FLine kp v) -> untouched_frag o p false = true ->
  infix (entry_fragment kp v) (display_document t trailing) /\
  infix (entry_fragment kp v) (display_document t' trailing').
Proof.
  intros t o t' p kp v tr tr' H He Hu. split.
  - eapply line_printed; eauto.
  - eapply line_printed. exact (step_fragment _ _ _ _ _ H He Hu).
Qed.

Theorem history_verbatim_text : forall ops t t' p kp v trailing trailing',
  apply_seq ops t = Some t' -> doc_frag t p = Some (FLine kp v) -> untouched_frag_all ops p false = true ->
  infix (entry_fragment kp v) (display_document t trailing) /\
  infix (entry_fragment kp v) (display_document t' trailing').
Proof.
  intros ops t t' p kp v tr tr' H He Hu. split.
  - eapply line_printed; eauto.
  - eapply line_printed. exact (history_fragment _ _ _ _ _ H He Hu).
Qed.

(* a header whose decor is explicit text (every header of a parsed document after into_mut) prints
   the same bytes wherever it stands *)
Definition explicit_raw (o : option raw) : bool :=
  match o with Some REmpty | Some (RExplicit _) => true | _ => false end.
Lemma header_text_explicit hp d arr first first' :
  explicit_raw (d_prefix d) = true -> explicit_raw (d_suffix d) = true ->
  header_text hp d arr first = header_text hp d arr first'.
Proof.
  intros Hp Hs. unfold header_text, decor_prefix, decor_suffix.
  destruct (d_prefix d) as [[| |]|]; try discriminate; destruct (d_suffix d) as [[| |]|]; try discriminate; reflexivity.
Qed.
