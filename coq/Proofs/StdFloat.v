(* Proofs/StdFloat.v — ONE statement of what is assumed about Rust's std float printing (`{}` on f64) and parsing
   (`str::parse::<f64>`) across C06, C07 and C11.

   Props/C11.v states it on the TEXT: `std_roundtrip_hyp classify64 is_inf shortest back` (Proofs/NumbersRT_Float.v):
   for every finite non-zero f64 pattern b, the text `shortest b` std prints has the shape ["-"] ip ["." fp] without
   an exponent, a fraction iff the value is not integral, denotes a decimal below the parser's overflow threshold, and
   `back` (the f64 the parser computes from the exact decimal) returns b.
   Model/SerDoc.v (C07 through text) and Model/Build.v (C06) state it on the DECIMAL: `float_oracle fd back`, where
   `fd b` is the leaf the tree holds and `float_text (fd b)` the text printed for it.

   Here: with `fd_std shortest b` := the decimal (nan / inf / zero) the writer's text `write_f64 b (shortest b)`
   (Model/WriteFloat.v) denotes,
       float_text (fd_std shortest b) = write_f64 b (shortest b)        the text printed IS the writer model's text
       float_oracle (fd_std shortest) back                              C07's hypothesis follows from C11's
   under `std_float shortest back` = C11's hypothesis plus the three things it leaves out because they are not about
   finite non-zero values (see `std_float` below). *)
From TV Require Import Base.Prelude Base.Utf8 Base.Winnow Gen.Consts.
From TV Require Import Model.Datetime Model.Numbers Model.Tree Model.Write Model.WriteFloat Model.Build.
From TV Require Import Spec.SerdeData Model.SerDoc.
From TV Require Import Proofs.LexEquivBase Proofs.NumbersRT_Int Proofs.NumbersRT_Float Proofs.NumbersRT_Widen Proofs.BuiltRTLeaf.
Require Import Lia ZifyBool ZifyN ZifyNat.

(* ---- a digit string is determined by its length and its value ------------------------------------------------- *)
Lemma digit_val_inj x y : is_digit x = true -> is_digit y = true -> digit_val x = digit_val y -> x = y.
Proof. unfold is_digit, digit_val. intros Hx Hy E. apply b2n_inj. lia. Qed.

Lemma dec_value_inj : forall a b, length a = length b -> forallb is_digit a = true -> forallb is_digit b = true ->
  dec_value a = dec_value b -> a = b.
Proof.
  induction a as [|x a IH] using rev_ind; intros b Hl Ha Hb E.
  - destruct b; [reflexivity|discriminate].
  - destruct (exists_last (l := b)) as (b' & y & ->).
    { intro Eb. subst b. rewrite app_length in Hl. cbn in Hl. lia. }
    rewrite !app_length in Hl. cbn [length] in Hl.
    rewrite forallb_app in Ha, Hb. cbn [forallb] in Ha, Hb.
    apply andb_true_iff in Ha as [Ha Hx]. apply andb_true_iff in Hb as [Hb Hy].
    rewrite andb_true_r in Hx, Hy.
    rewrite !dec_value_snoc in E.
    pose proof (is_digit_val x Hx). pose proof (is_digit_val y Hy).
    assert (E1 : dec_value a = dec_value b') by lia. assert (E2 : digit_val x = digit_val y) by lia.
    rewrite (IH b' ltac:(lia) Ha Hb E1), (digit_val_inj x y Hx Hy E2). reflexivity.
Qed.

Lemma zero_digit : is_digit x30 = true. Proof. reflexivity. Qed.

(* two canonical spellings (no leading zero in the integer part unless it is "0") with the same number of fraction
   digits and the same value are the same spelling *)
Definition canon_ip (ip : bytes) : Prop := proper_digits ip \/ ip = [x30].

Lemma canon_head0 ip tl : canon_ip ip -> ip = x30 :: tl -> tl = [].
Proof.
  intros [[_ (d & t & E & Hd)] | E] H.
  - rewrite E in H. injection H as -> _. discriminate Hd.
  - rewrite E in H. injection H as <-. reflexivity.
Qed.

Lemma spelling_unique ip1 fp1 ip2 fp2 :
  canon_ip ip1 -> canon_ip ip2 -> forallb is_digit fp1 = true -> forallb is_digit fp2 = true ->
  length fp1 = length fp2 -> dec_value (ip1 ++ fp1) = dec_value (ip2 ++ fp2) -> ip1 = ip2 /\ fp1 = fp2.
Proof.
  assert (W : forall ip1 fp1 ip2 fp2,
             canon_ip ip1 -> canon_ip ip2 -> forallb is_digit fp1 = true -> forallb is_digit fp2 = true ->
             length fp1 = length fp2 -> dec_value (ip1 ++ fp1) = dec_value (ip2 ++ fp2) ->
             length ip1 <= length ip2 -> ip1 = ip2 /\ fp1 = fp2).
  { clear. intros ip1 fp1 ip2 fp2 C1 C2 F1 F2 Hl E Hle.
    destruct (ip_digits ip1 C1) as [D1 N1]. destruct (ip_digits ip2 C2) as [D2 N2].
    set (j := length ip2 - length ip1).
    assert (Epad : repeat x30 j ++ ip1 ++ fp1 = ip2 ++ fp2).
    { apply dec_value_inj.
      - rewrite !app_length, repeat_length. unfold j. lia.
      - rewrite !forallb_app, D1, F1, forallb_repeat by reflexivity. reflexivity.
      - rewrite forallb_app, D2, F2. reflexivity.
      - rewrite dec_value_zeros. exact E. }
    destruct j as [|j'] eqn:Ej.
    - cbn [repeat app] in Epad. assert (Hlen : length ip1 = length ip2) by (unfold j in Ej; lia).
      assert (Ei : ip1 = ip2 /\ fp1 = fp2).
      { clear - Epad Hlen. revert ip2 Hlen Epad. induction ip1 as [|a ip1 IH]; intros [|b ip2] Hlen Epad; try discriminate.
        - split; [reflexivity|exact Epad].
        - cbn [app] in Epad. injection Epad as -> Epad. destruct (IH ip2 ltac:(cbn in Hlen; lia) Epad) as [-> ->]. auto. }
      exact Ei.
    - (* ip2 would start with a zero and be longer than one digit *)
      exfalso. cbn [repeat app] in Epad. destruct ip2 as [|b tl]; [contradiction|].
      cbn [app] in Epad. injection Epad as <- Epad.
      pose proof (canon_head0 _ tl C2 eq_refl) as ->. cbn [length] in Ej. unfold j in Ej. cbn [length] in Ej.
      destruct ip1; [contradiction|]. cbn [length] in Ej. lia. }
  intros C1 C2 F1 F2 Hl E. destruct (Nat.le_ge_cases (length ip1) (length ip2)) as [H|H].
  - apply W; assumption.
  - destruct (W ip2 fp2 ip1 fp1 C2 C1 F2 F1 (eq_sym Hl) (eq_sym E) H) as [-> ->]. auto.
Qed.

(* the positional text of a decimal given by a canonical spelling is that spelling *)
Theorem float_text_plain neg ip fp :
  canon_ip ip -> forallb is_digit fp = true -> fp <> [] ->
  float_text (FDec neg (dec_value (ip ++ fp)) (0 - Z.of_nat (length fp)))
  = (if neg then [dash] else []) ++ ip ++ dot :: fp.
Proof.
  intros Ci Hf Hne.
  assert (He : (0 - Z.of_nat (length fp) < 0)%Z) by (destruct fp; [contradiction|cbn [length]; lia]).
  destruct (float_text_dec neg (dec_value (ip ++ fp)) _ He) as (ip2 & fp2 & Et & C2 & F2 & _ & Ev & El).
  assert (Hl : length fp2 = length fp) by lia.
  destruct (spelling_unique ip2 fp2 ip fp C2 Ci F2 Hf Hl Ev) as [-> ->]. exact Et.
Qed.

(* ---- the leaf a float is kept as: the decimal the writer's text denotes ---------------------------------------- *)
Definition is_inf64 (b : N) : bool := ((b / 2 ^ 52) mod 2 ^ 11 =? 2047)%N && (b mod 2 ^ 52 =? 0)%N.

Section Std.
  Variable shortest : N -> bytes.     (* ORACLE: std's `{}` text of the f64 with this bit pattern *)
  Variable back : fval -> N.          (* ORACLE: the f64 `str::parse::<f64>` computes from the exact decimal; f64::NAN /
                                         f64::INFINITY with the sign for the words nan / inf (toml_edit's parser) *)

  Definition fd_std (b : N) : fval :=
    let c := classify64 b in
    if fc_nan c then FNan (fc_neg c)
    else if fc_zero c then FDec (fc_neg c) 0 (-1)
    else if is_inf64 b then FInf (fc_neg c)
    else fdec_of_text (write_f64 b (shortest b)).

  (* C11's hypothesis, and what it leaves out (it speaks about finite non-zero values only):
       - std prints the infinities as "inf" / "-inf";
       - parsing "0.0" / "-0.0" gives the zero of that sign (std), `inf` / `-inf` the infinity of that sign and
         `nan` / `-nan` some NaN (toml_edit's parser: f64::INFINITY, f64::NAN, negated for "-") *)
  Record std_float : Prop := mkStdFloat {
    sf_finite : std_roundtrip_hyp classify64 is_inf64 shortest back;
    sf_inf_text : forall b, is_inf64 b = true -> shortest b = t_inf (fc_neg (classify64 b));
    sf_back_zero : forall neg, back (FDec neg 0 (-1)) = (if neg then 2 ^ 63 else 0)%N;
    sf_back_inf : forall neg, back (FInf neg) = ((if neg then 2 ^ 63 else 0) + 2047 * 2 ^ 52)%N;
    sf_back_nan : forall neg, is_nan64 (back (FNan neg)) = true
  }.

  Hypothesis H : std_float.

  (* the finite non-zero case, from C11's hypothesis *)
  Lemma fd_std_finite b : fc_nan (classify64 b) = false -> fc_zero (classify64 b) = false -> is_inf64 b = false ->
    exists ip fp,
      std_finite_shape (classify64 b) (shortest b) ip fp /\
      fd_std b = FDec (fc_neg (classify64 b)) (dec_value (ip ++ toml_frac fp)) (0 - Z.of_nat (length (toml_frac fp))) /\
      overflows (dec_value (ip ++ toml_frac fp)) (0 - Z.of_nat (length (toml_frac fp))) = false /\
      back (fd_std b) = b /\
      write_f64 b (shortest b) = ((if fc_neg (classify64 b) then [dash] else []) ++ ip) ++ dot :: toml_frac fp.
  Proof.
    intros Hn Hz Hi. destruct (sf_finite H b Hn Hz Hi) as (ip & fp & Hs & Ho & Hb).
    exists ip, fp. pose proof (write_float_finite _ _ _ _ Hn Hz Hs) as Ew. fold (write_f64 b (shortest b)) in Ew.
    assert (Efd : fd_std b = FDec (fc_neg (classify64 b)) (dec_value (ip ++ toml_frac fp)) (0 - Z.of_nat (length (toml_frac fp)))).
    { unfold fd_std. cbv zeta. rewrite Hn, Hz, Hi. rewrite Ew, <- app_assoc.
      destruct (ip_digits ip (sh_ip _ _ _ _ Hs)) as [Hd Hne].
      apply fdec_of_plain; [exact Hd|exact Hne|].
      destruct fp; [reflexivity|exact (sh_fp _ _ _ _ Hs)]. }
    split; [exact Hs|]. split; [exact Efd|]. split; [exact Ho|]. split; [rewrite Efd; exact Hb|exact Ew].
  Qed.

  (* 1. the text printed for the leaf is the writer model's text *)
  Theorem float_text_is_writer b : float_text (fd_std b) = write_f64 b (shortest b).
  Proof.
    destruct (fc_nan (classify64 b)) eqn:Hn.
    - unfold fd_std, write_f64, write_float. cbv zeta. rewrite Hn. destruct (fc_neg (classify64 b)); reflexivity.
    - destruct (fc_zero (classify64 b)) eqn:Hz.
      + unfold fd_std, write_f64, write_float. cbv zeta. rewrite Hn, Hz. destruct (fc_neg (classify64 b)); reflexivity.
      + destruct (is_inf64 b) eqn:Hi.
        * unfold fd_std, write_f64, write_float. cbv zeta. rewrite Hn, Hz, Hi, (sf_inf_text H b Hi).
          assert (Hint : fc_integral (classify64 b) = false).
          { unfold is_inf64 in Hi. apply andb_true_iff in Hi as [He _]. apply N.eqb_eq in He.
            unfold classify64, classify. cbn [fc_integral]. change (2 ^ 11 - 1)%N with 2047%N. rewrite He. reflexivity. }
          rewrite Hint. destruct (fc_neg (classify64 b)); reflexivity.
        * destruct (fd_std_finite b Hn Hz Hi) as (ip & fp & Hs & Efd & _ & _ & Ew).
          rewrite Efd, Ew, <- app_assoc. apply float_text_plain.
          -- exact (sh_ip _ _ _ _ Hs).
          -- destruct fp; [reflexivity|exact (sh_fp _ _ _ _ Hs)].
          -- destruct fp; discriminate.
  Qed.

  (* a 64-bit pattern is its sign, exponent and mantissa fields *)
  Ltac Zify.zify_post_hook ::= Z.div_mod_to_equations.
  Lemma decompose64 b : (b < 2 ^ 64)%N ->
    b = ((if fc_neg (classify64 b) then 2 ^ 63 else 0) + ex64 b * 2 ^ 52 + mant64 b)%N.
  Proof.
    intro Hb. rewrite classify64_neg, testbit_div. unfold ex64, mant64, p52.
    change (2 ^ 64)%N with 18446744073709551616%N in Hb. change (2 ^ 63)%N with 9223372036854775808%N.
    change (2 ^ 52)%N with 4503599627370496%N.
    destruct ((b / 9223372036854775808) mod 2 =? 1)%N eqn:E; lia.
  Qed.
  Ltac Zify.zify_post_hook ::= idtac.

  Lemma zero_bits b : (b < 2 ^ 64)%N -> fc_zero (classify64 b) = true -> b = (if fc_neg (classify64 b) then 2 ^ 63 else 0)%N.
  Proof.
    intros Hb Hz. rewrite classify64_zero in Hz. apply andb_true_iff in Hz as [H1 H2]. apply N.eqb_eq in H1, H2.
    rewrite (decompose64 b Hb) at 1. rewrite H1, H2. lia.
  Qed.
  Lemma inf_bits b : (b < 2 ^ 64)%N -> is_inf64 b = true ->
    b = ((if fc_neg (classify64 b) then 2 ^ 63 else 0) + 2047 * 2 ^ 52)%N.
  Proof.
    intros Hb Hi. unfold is_inf64 in Hi. apply andb_true_iff in Hi as [H1 H2]. apply N.eqb_eq in H1, H2.
    change (ex64 b = 2047%N) in H1. change (mant64 b = 0%N) in H2.
    rewrite (decompose64 b Hb) at 1. rewrite H1, H2. lia.
  Qed.

  (* 2. C07's oracle (Model/SerDoc.v) follows *)
  Theorem float_oracle_from_std : float_oracle fd_std back.
  Proof.
    intros b Hb.
    destruct (fc_nan (classify64 b)) eqn:Hn.
    - assert (E : fd_std b = FNan (fc_neg (classify64 b))) by (unfold fd_std; cbv zeta; rewrite Hn; reflexivity).
      rewrite E. split; [exact I|]. right. split; [|apply (sf_back_nan H)].
      rewrite classify64_nan in Hn. exact Hn.
    - destruct (fc_zero (classify64 b)) eqn:Hz.
      + assert (E : fd_std b = FDec (fc_neg (classify64 b)) 0 (-1)) by (unfold fd_std; cbv zeta; rewrite Hn, Hz; reflexivity).
        rewrite E. split; [split; [lia|reflexivity]|]. left. rewrite (sf_back_zero H). apply zero_bits; assumption.
      + destruct (is_inf64 b) eqn:Hi.
        * assert (E : fd_std b = FInf (fc_neg (classify64 b))) by (unfold fd_std; cbv zeta; rewrite Hn, Hz, Hi; reflexivity).
          rewrite E. split; [exact I|]. left. rewrite (sf_back_inf H). apply inf_bits; assumption.
        * destruct (fd_std_finite b Hn Hz Hi) as (ip & fp & _ & Efd & Ho & Hbk & _).
          split; [|left; symmetry; exact Hbk]. rewrite Efd. split; [|exact Ho].
          destruct fp; cbn [toml_frac length]; lia.
  Qed.

  (* the leaf predicate of C06 (Proofs/BuiltRTTop.v scalar_ok) holds of every such leaf *)
  Corollary fd_std_leaf b : (b < 2 ^ 64)%N -> float_leaf (fd_std b).
  Proof. intro Hb. exact (proj1 (float_oracle_from_std b Hb)). Qed.
End Std.
