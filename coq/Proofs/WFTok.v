(* Proofs/WFTok.v — WF backbone: the texts the printer writes for keys and scalars are tokens of the grammar.
   A stored repr is a token by WF; an absent repr prints through the default writers, whose output is a token by
   their round-trip theorems (C10 strings / keys, C11 integers, C12 date-times) and token soundness (C01 L1).
   Also the bridge used by the decision procedure: a text that a token parser reads completely is a token. *)
From TV Require Import Base.Prelude Base.Utf8 Base.Winnow Gen.Consts Spec.Lex Spec.DatetimeSpec Spec.Syntax Spec.WF.
From TV Require Import Model.Strings Model.Datetime Model.DatetimeStd Model.Numbers Model.Tree Model.Parse Model.Write Model.Encode.
From TV Require Import Proofs.LexEquivBase Proofs.LexEquivTrivia Proofs.LexEquivInt Proofs.LexEquivFloat Proofs.LexEquivStrings
                       Proofs.LexEquivString Proofs.LexEquivDatetime.
From TV Require Import Proofs.StringsRTTop Proofs.NumbersRT_Int Proofs.DatetimeEq.
Require Import Lia.

(* what a sound token parser reads completely is a token *)
Lemma splits_whole t t' i' : splits (new_input t) t' i' -> rest i' = [] -> t' = t.
Proof. intros [R _] E. cbn [new_input rest] in R. rewrite E, app_nil_r in R. auto. Qed.

Lemma string_whole t v i' : string_ (new_input t) = Ok v i' -> rest i' = [] -> string_tok t v.
Proof. intros H E. apply string_sound in H as (t' & Ht & S). rewrite <- (splits_whole _ _ _ S E). exact Ht. Qed.
Lemma integer_whole t z i' : integer (new_input t) = Ok z i' -> rest i' = [] -> integer_tok t z /\ in_i64 z = true.
Proof. intros H E. apply integer_sound in H as (t' & Ht & S & R). rewrite <- (splits_whole _ _ _ S E). auto. Qed.
Lemma float_whole t f i' : float (new_input t) = Ok f i' -> rest i' = [] -> float_tok t f.
Proof. intros H E. apply float_sound in H as (t' & Ht & _ & S). rewrite <- (splits_whole _ _ _ S E). exact Ht. Qed.
Lemma boolean_whole t b i' : (true_ <|> false_) (new_input t) = Ok b i' -> rest i' = [] -> boolean_tok t b.
Proof. intros H E. apply boolean_sound in H as (t' & Ht & S). rewrite <- (splits_whole _ _ _ S E). exact Ht. Qed.
Lemma date_time_whole t d i' : date_time (new_input t) = Ok d i' -> rest i' = [] -> date_time_tok t d.
Proof. intros H E. apply date_time_sound in H as (t' & Ht & S). rewrite <- (splits_whole _ _ _ S E). exact Ht. Qed.
Lemma simple_key_whole t rw k i' : simple_key (new_input t) = Ok (rw, k) i' -> rest i' = [] -> simple_key_tok t k.
Proof. intros H E. apply simple_key_sound in H as (t' & Ht & S & _). rewrite <- (splits_whole _ _ _ S E). exact Ht. Qed.

(* ---- default writers ------------------------------------------------------------------------------------------ *)
Lemma default_key_tok k : utf8_valid_b k = true -> exists t, write_key KDefault k = Some t /\ simple_key_tok t k.
Proof.
  intro V. destruct (write_key KDefault k) as [t|] eqn:W; [|exfalso; exact (proj2 (default_total k) W)].
  exists t. split; [reflexivity|]. destruct (key_styles_parse k KDefault t V W) as [P _].
  eapply simple_key_whole; [exact P|reflexivity].
Qed.

Lemma key_text_tok k : key_repr_ok k -> simple_key_tok (key_display_repr k) (k_key k).
Proof.
  unfold key_repr_ok, key_display_repr. destruct (k_repr k) as [[|s|a b]|]; cbn [repr_str]; try contradiction.
  - auto.
  - intro V. destruct (default_key_tok _ V) as (t & -> & Ht). exact Ht.
Qed.

Lemma default_string_tok v : utf8_valid_b v = true -> string_tok (default_string_repr v) v.
Proof.
  intro V. destruct (value_styles_parse v StDefault (default_string_repr v) V eq_refl) as [P _].
  eapply string_whole; [exact P|reflexivity].
Qed.
Lemma default_int_tok z : in_i64 z = true -> integer_tok (write_i64 z) z.
Proof. intro H. eapply (integer_whole _ _ _ (integer_write_i64 z H)). reflexivity. Qed.
Lemma default_bool_tok b : boolean_tok (write_bool b) b.
Proof. destruct b; [left|right]; split; reflexivity. Qed.
Lemma default_datetime_tok d : in_range d = true -> date_time_tok (display_datetime d) d.
Proof.
  intro H. destruct (print_parse d H) as [_ P]. unfold doc_datetime in P.
  destruct (display_datetime d) as [|b r] eqn:E; [discriminate|]. destruct (in_class VALUE_NUMBER_START b); [|discriminate].
  destruct (date_time (new_input (b :: r))) as [d' i'|? ?|? ?|?] eqn:Q; try discriminate.
  destruct (rest i') eqn:R; [|discriminate]. inversion P; subst d'. eapply date_time_whole; [exact Q|exact R].
Qed.
Lemma default_special_float_tok f : match f with FDec _ _ _ => False | _ => True end -> float_tok (float_marker f) f.
Proof.
  destruct f as [[|]|[|]|n m e]; intro H; try contradiction; cbn [float_marker];
    (eapply float_whole; [vm_compute; reflexivity|reflexivity]).
Qed.

Lemma scalar_text_tok x r :
  repr_ok x r -> scalar_lim x ->
  scalar_tok (match repr_str r with Some t => t | None => scalar_default_repr x end) x.
Proof.
  unfold repr_ok. destruct r as [[|s|a b]|]; cbn [repr_str]; try contradiction; [auto|].
  intros Hd Hl. destruct x as [v|z|f|b|d]; cbn [scalar_tok scalar_default_repr default_ok scalar_lim] in *.
  - apply default_string_tok, Hd.
  - apply default_int_tok, Hl.
  - apply default_special_float_tok. destruct f; auto.
  - apply default_bool_tok.
  - apply default_datetime_tok, Hd.
Qed.
