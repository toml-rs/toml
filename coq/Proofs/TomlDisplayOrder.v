(* Proofs/TomlDisplayOrder.v — C06 for toml::Value Display: what the parsed document holds, as a toml::Value with its
   maps in the order of the text (`root_order`), and that this is the value itself up to the order of map entries
   (and the sign of NaN, which the serializer drops). *)
From TV Require Import Proofs.CanonicalRead.
From TV Require Import Base.Prelude Gen.Consts.
From TV Require Import Model.Numbers Model.Tree Model.Document Model.Encode Model.Build.
From TV Require Import Model.TomlDisplay.
From TV Require Import Proofs.BuiltRTValue Proofs.BuiltRTDoc Proofs.TomlDisplay.
From Coq Require Import Permutation.
Require Import Lia.

(* ---- the serializer's order, on the entries themselves ---------------------------------------------------------- *)
Definition ord_kv (three : bool) (m : list (bytes * tvc)) : list (bytes * tvc) :=
  if three then filter (fun kv => c_pass1 (snd kv)) m ++ filter (fun kv => c_pass2 (snd kv)) m ++ filter (fun kv => c_pass3 (snd kv)) m
  else m.

Lemma filter_map_comm {A B} (g : A -> B) (p : B -> bool) l : filter p (map g l) = map g (filter (fun x => p (g x)) l).
Proof. induction l as [|x l IH]; [reflexivity|]. cbn [map filter]. destruct (p (g x)); cbn [map]; rewrite IH; reflexivity. Qed.

Lemma filter_true {A} (l : list A) : filter (fun _ => true) l = l.
Proof. induction l as [|x l IH]; [reflexivity|]. cbn. rewrite IH. reflexivity. Qed.

Lemma in_order_map {A} three (f : tvc -> A) m :
  in_order three (map (fun kv => (fst kv, snd kv, f (snd kv))) m) = map (fun kv => (fst kv, f (snd kv))) (ord_kv three m).
Proof.
  unfold in_order, ord_kv. destruct three.
  - rewrite !filter_map_comm, !map_map, !map_app. cbn [fst snd]. reflexivity.
  - rewrite filter_true, map_map. reflexivity.
Qed.

Lemma ord_kv_in three m kv : In kv (ord_kv three m) -> In kv m.
Proof.
  unfold ord_kv. destruct three; [|auto]. intro H.
  apply in_app_or in H as [H|H]; [apply filter_In in H; tauto|].
  apply in_app_or in H as [H|H]; apply filter_In in H; tauto.
Qed.

Lemma filter_ord_kv three (q : bytes * tvc -> bool) m : filter q (ord_kv three m) = ord_kv three (filter q m).
Proof.
  unfold ord_kv. destruct three; [|reflexivity]. rewrite !filter_app.
  assert (C : forall p, filter q (filter p m) = filter p (filter q m)).
  { intro p. induction m as [|x l IH]; [reflexivity|]. cbn [filter].
    destruct (p x) eqn:Ep, (q x) eqn:Eq; cbn [filter]; rewrite ?Ep, ?Eq, IH; reflexivity. }
  rewrite !C. reflexivity.
Qed.

(* ---- unfolding the order functions ----------------------------------------------------------------------------------- *)
Lemma val_order_tab m : val_order (TvTab m) = TvTab (map (fun kv => (fst kv, val_order (snd kv))) (ord_kv true m)).
Proof.
  cbn [val_order]. f_equal. rewrite <- in_order_map. f_equal.
  induction m as [|[k x] m IH]; [reflexivity|]. cbn [map fst snd]. rewrite IH. reflexivity.
Qed.

Definition line_kv (kv : bytes * tvc) : bool := c_is_line (snd kv).

Lemma root_order_eq three m :
  root_order three m = map (fun kv => (fst kv, tab_order (snd kv))) (filter line_kv (ord_kv three m))
                       ++ map (fun kv => (fst kv, tab_order (snd kv))) (filter (fun kv => negb (line_kv kv)) (ord_kv three m)).
Proof.
  unfold root_order. rewrite !filter_map_comm. cbn [fst snd]. rewrite !in_order_map, !filter_ord_kv. reflexivity.
Qed.

Lemma tab_order_tab m : tab_order (TvTab m) = TvTab (root_order true m).
Proof.
  cbn [tab_order]. unfold root_order. do 4 f_equal;
    (induction m as [|[k x] m IH]; [reflexivity|]; cbn [map fst snd]; rewrite IH; reflexivity).
Qed.

(* ---- values ------------------------------------------------------------------------------------------------------------ *)
Lemma value_comes_back : forall v, tvc_of_aval (abs_value (tv_value v)) = val_order v.
Proof.
  apply tvc_strong.
  - reflexivity.
  - intros l IH. cbn [tv_value val_order]. unfold array_from_iter. rewrite abs_built_array. cbn [tvc_of_aval]. f_equal.
    rewrite !map_map. apply map_ext_in. intros x Hx. rewrite Forall_forall in IH. apply IH, Hx.
  - intros m IH. rewrite tv_value_tab, val_order_tab. unfold vents. rewrite in_order_map, abs_built_inline. cbn [tvc_of_aval]. f_equal.
    rewrite !map_map. cbn [fst snd]. apply map_ext_in. intros kv Hkv. f_equal.
    rewrite Forall_forall in IH. apply (IH kv). apply (ord_kv_in true m kv Hkv).
Qed.

Lemma tab_order_line v : c_is_line v = true -> tab_order v = val_order v.
Proof. destruct v as [s|l|m]; cbn [c_is_line tab_order val_order]; [reflexivity| |discriminate]. intro H. apply negb_true_iff in H. rewrite H. reflexivity. Qed.

(* ---- tables ------------------------------------------------------------------------------------------------------------ *)
Definition is_aval (n : anode) : bool := match n with AVal _ => true | _ => false end.

(* what one entry contributes to the printed form of its table *)
Definition node_back (x : tvc) : Prop :=
  if c_is_line x
  then True
  else exists n, abs_item (tv_item x) = [n] /\ is_aval n = false /\ map tvc_of_anode (printed_node n) = [tab_order x].

Lemma abs_item_line x : c_is_line x = true -> abs_item (tv_item x) = [AVal (abs_value (tv_value x))].
Proof. intro H. rewrite (tv_item_line x H). reflexivity. Qed.

Lemma entries_back (O : list (bytes * tvc)) :
  Forall (fun kv => node_back (snd kv)) O ->
  tvc_of_entries (printed_entries (flat_map (fun kv => map (fun n => (fst kv, n)) (abs_item (tv_item (snd kv)))) O))
  = map (fun kv => (fst kv, tab_order (snd kv))) (filter line_kv O)
    ++ map (fun kv => (fst kv, tab_order (snd kv))) (filter (fun kv => negb (line_kv kv)) O).
Proof.
  intro H. unfold printed_entries, tvc_of_entries. rewrite map_app. f_equal.
  - unfold val_entries. induction H as [|[k x] O Hx _ IH]; [reflexivity|].
    cbn [flat_map fst snd filter]. unfold line_kv at 1. cbn [snd].
    rewrite flat_map_app, map_app, IH. unfold node_back in Hx. cbn [snd] in Hx. destruct (c_is_line x) eqn:El.
    + rewrite (abs_item_line x El). cbn [map flat_map fst snd app tvc_of_anode]. rewrite value_comes_back, (tab_order_line x El). reflexivity.
    + destruct Hx as (n & En & Hn & _). rewrite En. cbn [map flat_map fst snd app]. destruct n; [discriminate Hn|reflexivity|reflexivity].
  - induction H as [|[k x] O Hx _ IH]; [reflexivity|].
    cbn [flat_map fst snd filter]. unfold line_kv at 1. cbn [snd].
    rewrite flat_map_app, map_app, IH. unfold node_back in Hx. cbn [snd] in Hx. destruct (c_is_line x) eqn:El.
    + rewrite (abs_item_line x El). cbn [map flat_map fst snd app printed_node negb]. reflexivity.
    + destruct Hx as (n & En & _ & Hp). rewrite En. cbn [map flat_map fst snd app negb]. rewrite app_nil_r, map_map. cbn [fst snd].
      f_equal. rewrite <- (map_map tvc_of_anode (fun r => (k, r))), Hp. reflexivity.
Qed.

Lemma table_back three b m :
  Forall (fun kv => node_back (snd kv)) m ->
  tvc_of_entries (printed_entries (abs_tbl (doc_tbl b (in_order three (ients m))))) = root_order three m.
Proof.
  intro H. rewrite doc_tbl_the, abs_tbl_the. unfold ients. rewrite in_order_map.
  rewrite root_order_eq. rewrite <- entries_back.
  - f_equal. f_equal. induction (ord_kv three m) as [|kv O IH]; [reflexivity|]. cbn [map flat_map fst snd]. rewrite IH. reflexivity.
  - apply Forall_forall. intros kv Hkv. rewrite Forall_forall in H. apply H. apply (ord_kv_in three m kv Hkv).
Qed.

Theorem node_back_all : forall v, node_back v.
Proof.
  apply tvc_strong.
  - intro s. exact I.
  - intros l IH. unfold node_back. destruct (c_is_line (TvArr l)) eqn:El; [exact I|].
    cbn [c_is_line] in El. apply negb_false_iff in El. rewrite (tv_item_aot l El).
    set (ts := map (fun x : bool * list (bytes * item) => Tbl (mk_tbl_items (snd x)) decor_default (fst x) false None None) (map tab_of l)).
    exists (AAot (map abs_tbl ts)). split; [reflexivity|]. split; [reflexivity|].
    cbn [tab_order]. rewrite El.
    assert (Hall : forallb tvc_is_table l = true) by (destruct l; [discriminate|exact El]).
    assert (Hne : l <> []) by (destruct l; [discriminate|discriminate]).
    assert (Ep : printed_node (AAot (map abs_tbl ts)) = [AAot (map printed_entries (map abs_tbl ts))]).
    { unfold ts. destruct l; [contradiction|reflexivity]. }
    rewrite Ep. cbn [map tvc_of_anode]. f_equal. f_equal. unfold ts. rewrite !map_map.
    apply map_ext_in. intros x Hx. rewrite forallb_forall in Hall. specialize (Hall x Hx).
    destruct x as [s|l0|m]; try discriminate. cbn [tab_of fst snd]. rewrite tab_order_tab. f_equal.
    rewrite Forall_forall in IH. specialize (IH _ Hx). unfold node_back in IH. cbn [c_is_line] in IH.
    destruct IH as (n & En & _ & Hp). rewrite tv_item_tab in En. cbn [abs_item] in En. injection En as <-.
    cbn [printed_node map tvc_of_anode] in Hp. rewrite tab_order_tab in Hp. injection Hp as Hp. exact Hp.
  - intros m IH. unfold node_back. cbn [c_is_line]. rewrite tv_item_tab. eexists. split; [reflexivity|]. split; [reflexivity|].
    cbn [printed_node map tvc_of_anode]. rewrite tab_order_tab. f_equal. f_equal.
    exact (table_back true (nonempty_b m) m IH).
Qed.

(* the parsed document as a toml::Value *)
Theorem document_comes_back three m :
  tvc_of_entries (printed_entries (abs_tbl (tv_doc three m))) = root_order three m.
Proof.
  unfold tv_doc. fold (ients m). apply table_back. apply Forall_forall. intros kv _. apply node_back_all.
Qed.

(* ---- ... which is the value itself, up to the order of map entries and the sign of NaN --------------------------------- *)
(* the value the serializer sees: ValueSerializer::serialize_f64 drops the sign of NaN *)
Fixpoint norm_leaves (v : tvc) : tvc :=
  match v with
  | TvLeaf s => TvLeaf (ser_scalar s)
  | TvArr l => TvArr (map norm_leaves l)
  | TvTab m => TvTab (map (fun kv => (fst kv, norm_leaves (snd kv))) m)
  end.

(* w is v with the entries of any of its maps, at any depth, permuted (toml::Map is a map: under BTreeMap both are
   the same value; under IndexMap they differ in iteration order only) *)
Inductive perm_tvc : tvc -> tvc -> Prop :=
| PL s : perm_tvc (TvLeaf s) (TvLeaf s)
| PA l l' : Forall2 perm_tvc l l' -> perm_tvc (TvArr l) (TvArr l')
| PT m m1 m' :
    Permutation m m1 ->
    Forall2 (fun a b => fst a = fst b /\ perm_tvc (snd a) (snd b)) m1 m' ->
    perm_tvc (TvTab m) (TvTab m').

Lemma Forall2_map_in {A B C} (R : B -> C -> Prop) (f : A -> B) (g : A -> C) l :
  (forall x, In x l -> R (f x) (g x)) -> Forall2 R (map f l) (map g l).
Proof.
  induction l as [|x l IH]; intro H; [constructor|]. cbn [map]. constructor; [apply H; left; reflexivity|].
  apply IH. intros y Hy. apply H. right. exact Hy.
Qed.

Lemma ord_kv_perm three m : Permutation m (ord_kv three m).
Proof. unfold ord_kv. destruct three; [|apply Permutation_refl]. symmetry. apply (three_pass_perm (fun kv : bytes * tvc => snd kv)). Qed.

Lemma value_same : forall v, perm_tvc (norm_leaves v) (val_order v).
Proof.
  apply tvc_strong.
  - intro s. constructor.
  - intros l IH. cbn [norm_leaves val_order]. constructor. apply Forall2_map_in. rewrite Forall_forall in IH. exact IH.
  - intros m IH. rewrite val_order_tab. cbn [norm_leaves].
    apply PT with (m1 := map (fun kv => (fst kv, norm_leaves (snd kv))) (ord_kv true m)).
    + apply Permutation_map, ord_kv_perm.
    + apply Forall2_map_in. intros kv Hkv. cbn [fst snd]. split; [reflexivity|].
      rewrite Forall_forall in IH. apply IH. apply (ord_kv_in true m kv Hkv).
Qed.

Lemma root_same three m :
  (forall kv, In kv m -> perm_tvc (norm_leaves (snd kv)) (tab_order (snd kv))) ->
  perm_tvc (norm_leaves (TvTab m)) (TvTab (root_order three m)).
Proof.
  intro H. rewrite root_order_eq, <- map_app. cbn [norm_leaves].
  set (O := ord_kv three m).
  apply PT with (m1 := map (fun kv => (fst kv, norm_leaves (snd kv))) (filter line_kv O ++ filter (fun kv => negb (line_kv kv)) O)).
  - apply Permutation_map. eapply Permutation_trans; [apply (ord_kv_perm three m)|]. symmetry. apply filter_negb_perm.
  - apply Forall2_map_in. intros kv Hkv. cbn [fst snd]. split; [reflexivity|]. apply H.
    apply (ord_kv_in three m). apply in_app_or in Hkv as [Hkv|Hkv]; apply filter_In in Hkv; tauto.
Qed.

Theorem table_same : forall v, perm_tvc (norm_leaves v) (tab_order v).
Proof.
  apply tvc_strong.
  - intro s. constructor.
  - intros l IH. cbn [tab_order]. destruct (c_aot_able l).
    + cbn [norm_leaves]. constructor. apply Forall2_map_in. rewrite Forall_forall in IH. exact IH.
    + apply value_same.
  - intros m IH. rewrite tab_order_tab. apply root_same. intros kv Hkv. rewrite Forall_forall in IH. apply IH, Hkv.
Qed.

Theorem document_same three m : perm_tvc (norm_leaves (TvTab m)) (TvTab (root_order three m)).
Proof. apply root_same. intros kv _. apply table_same. Qed.

(* no NaN sign to lose: the leaves come back as they are *)
Fixpoint no_neg_nan (v : tvc) : Prop :=
  match v with
  | TvLeaf (SFloat (FNan true)) => False
  | TvLeaf _ => True
  | TvArr l => (fix go (l : list tvc) : Prop := match l with [] => True | x :: r => no_neg_nan x /\ go r end) l
  | TvTab m => (fix go (m : list (bytes * tvc)) : Prop := match m with [] => True | (_, x) :: r => no_neg_nan x /\ go r end) m
  end.

Lemma norm_leaves_id : forall v, no_neg_nan v -> norm_leaves v = v.
Proof.
  apply (tvc_strong (fun v => no_neg_nan v -> norm_leaves v = v)).
  - intros s H. destruct s as [x|z|f|b|d]; try reflexivity. destruct f as [[|]|n|n mm e]; [contradiction|reflexivity|reflexivity|reflexivity].
  - intros l IH H. cbn [norm_leaves]. f_equal. induction IH as [|x l Hx _ IHl]; [reflexivity|].
    cbn [no_neg_nan] in H. destruct H as [H1 H2]. cbn [map]. rewrite (Hx H1), (IHl H2). reflexivity.
  - intros m IH H. cbn [norm_leaves]. f_equal. induction IH as [|[k x] m Hx _ IHm]; [reflexivity|].
    cbn [no_neg_nan] in H. destruct H as [H1 H2]. cbn [map fst snd] in *. rewrite (Hx H1), (IHm H2). reflexivity.
Qed.

(* ---- the round trip ------------------------------------------------------------------------------------------------------ *)
Theorem toml_display_roundtrip three m :
  wf_tvc (TvTab m) -> tvc_depth (TvTab m) <= LIMIT ->
  exists d, parse_document (display_document (render_tbl float_text (tv_doc three m)) REmpty) = POk d
            /\ tvc_of_entries (abs_tbl (doc_root d)) = root_order three m
            /\ perm_tvc (norm_leaves (TvTab m)) (TvTab (root_order three m)).
Proof.
  intros Hwf Hd. destruct (toml_display_parses three m Hwf Hd) as (d & Hp & Ha). exists d. split; [exact Hp|]. split.
  - rewrite Ha. apply document_comes_back.
  - apply document_same.
Qed.

Theorem toml_display_exact_leaves three m :
  wf_tvc (TvTab m) -> tvc_depth (TvTab m) <= LIMIT -> no_neg_nan (TvTab m) ->
  exists d, parse_document (display_document (render_tbl float_text (tv_doc three m)) REmpty) = POk d
            /\ perm_tvc (TvTab m) (TvTab (tvc_of_entries (abs_tbl (doc_root d)))).
Proof.
  intros Hwf Hd Hn. destruct (toml_display_roundtrip three m Hwf Hd) as (d & Hp & Ha & Hs). exists d. split; [exact Hp|].
  rewrite Ha. rewrite <- (norm_leaves_id (TvTab m) Hn) at 1. exact Hs.
Qed.
