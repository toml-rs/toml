(* Proofs/WFOrderTop.v — despanning changes neither the sections of a tree nor their statements: `replay_stmts_t`.
   With it the semantic half of C03's general clause, proved on the parsed tree (Proofs/WFOrderDotDoc.v), carries over to
   the despanned tree that is printed. *)
From TV Require Import Base.Prelude Spec.Syntax Spec.WF.
From TV Require Import Model.Tree Model.Encode.
From TV Require Import Proofs.GrammarBase Proofs.SpansDefs Proofs.PrintBackBase Proofs.PrintBackSort.
From TV Require Import Proofs.WFSem Proofs.WFSemDoc Proofs.WFPrintKey Proofs.WFPrintFlat Proofs.WFTree Proofs.WFPrintDoc Proofs.WFParseBase Proofs.WFParseTop
                       Proofs.WFReplay.
Require Import Lia NArith.

Local Notation section := (tbl * list key * bool)%type.

Section T.
  Variable s : bytes.

  (* despanning keeps the data *)
  Lemma absv_t : forall v, absv (tvalue s v) = absv v.
  Proof.
    refine (proj1 (tree_ind3 (fun v => absv (tvalue s v) = absv v)
                     (fun it => absi (titem s it) = absi it) (fun _ => True) _ _ _ _ _ _ _ _)); auto.
    - intros vals tr c d sp IH. rewrite tvalue_array, !absv_array, map_map. f_equal. apply map_ext_Forall. exact IH.
    - intros items pre im dt d sp IH. rewrite tvalue_inline, !absv_inline, map_map. f_equal. apply map_ext_Forall.
      eapply Forall_impl; [|exact IH]. intros [k it] H. unfold absi_kv, tkv. cbn [fst snd] in *. rewrite H. reflexivity.
  Qed.

  Lemma dn_item_t : forall it, dn_item (titem s it) = dn_item it.
  Proof.
    induction it as [it IH] using item_dotted_ind. destruct it as [|v|t|ts asp]; try reflexivity.
    change (titem s (IValue v)) with (IValue (tvalue s v)).
    destruct v as [x r d|vals tr c d sp|sub pre im dt d sp].
    - reflexivity.
    - rewrite tvalue_array. cbn [dn_item]. f_equal. rewrite <- (tvalue_array s vals tr c d sp). apply absv_t.
    - rewrite tvalue_inline. destruct dt.
      + cbn [dn_item]. f_equal. rewrite map_map. specialize (IH sub pre im d sp eq_refl). apply map_ext_Forall. eapply Forall_impl; [|exact IH].
        intros [k it] H. unfold tkv. cbn [fst snd] in *. rewrite H. reflexivity.
      + cbn [dn_item]. f_equal. rewrite <- (tvalue_inline s sub pre im false d sp). apply absv_t.
  Qed.

  Lemma sb_tbl_t : forall t, sb_tbl (ttbl s t) = sb_tbl t.
  Proof.
    induction t as [items d im dt p sp IH] using tbl_sub_ind. rewrite ttbl_eq, !sb_tbl_eq. cbn [t_items]. rewrite map_map. apply map_ext_Forall.
    eapply Forall_impl; [|exact IH]. intros [k it] H. unfold tkv. cbn [fst snd tkey k_key] in *. f_equal.
    destruct it as [|v|sub|ts asp]; try reflexivity.
    - change (titem s (IValue v)) with (IValue (tvalue s v)). unfold sn_item. f_equal. apply (dn_item_t (IValue v)).
    - change (titem s (ITable sub)) with (ITable (ttbl s sub)). unfold sn_item. rewrite (proj1 (t_flags_t s sub)), shown_t, has_line_t, H. reflexivity.
    - rewrite titem_aot. unfold sn_item. f_equal. rewrite map_map. apply map_ext_Forall. exact H.
  Qed.

  Lemma tflat_nil_t : forall t p, (tflat (map (tkey s) p) (ttbl s t) = []) <-> (tflat p t = []).
  Proof.
    intros t p. pose proof (has_line_t s t). (* through the forest: both are empty iff the body has no line *)
    assert (G : forall u q, (tflat q u = []) <-> dflat dval (dpart dval (sb_tbl u)) = []).
    { intros u q. rewrite <- (map_id (dflat dval (dpart dval (sb_tbl u)))). pose proof (tflat_dflat u q) as E.
      split; intro Hx.
      - rewrite Hx in E. cbn [map] in E. symmetry in E. apply map_eq_nil in E. rewrite E. reflexivity.
      - rewrite map_id in Hx. rewrite Hx in E. cbn [map] in E. apply map_eq_nil in E. exact E. }
    rewrite (G (ttbl s t)), (G t), sb_tbl_t. reflexivity.
  Qed.
  Lemma no_lines_t t : no_lines (ttbl s t) = no_lines t.
  Proof.
    unfold no_lines. pose proof (tflat_nil_t t []) as [H1 H2]. cbn [map] in *.
    destruct (tflat [] t) eqn:E; [rewrite (H2 eq_refl); reflexivity|]. destruct (tflat [] (ttbl s t)) eqn:E'; [specialize (H1 eq_refl); discriminate|reflexivity].
  Qed.

  Definition tent (x : section) : section := (ttbl s (fst (fst x)), map (tkey s) (snd (fst x)), snd x).
  Lemma ktexts_t p : ktexts (map (tkey s) p) = ktexts p.
  Proof. unfold ktexts. rewrite map_map. reflexivity. Qed.
  Lemma own_abs_t x : own_abs (tent x) = own_abs x.
  Proof.
    destruct x as [[t p] a]. unfold own_abs, own_hdr, hdr_printed, tent. cbn [fst snd]. rewrite sb_tbl_t, ktexts_t, no_lines_t, (proj2 (t_flags_t s t)).
    destruct p; reflexivity.
  Qed.

  Lemma sections_t : forall t p a, sections (ttbl s t) (map (tkey s) p) a = map tent (sections t p a).
  Proof.
    induction t as [items d im dt pos sp IH] using tbl_sub_ind. intros p a. rewrite (sections_eq (ttbl s _)), (sections_eq (Tbl _ _ _ _ _ _)), map_app.
    rewrite (proj1 (t_flags_t s _)), t_items_t. cbn [t_dotted t_items]. f_equal; [destruct dt; reflexivity|].
    induction items as [|[k it] items IHi]; [reflexivity|]. inversion IH as [|? ? H1 H2]; subst. cbn [map flat_map]. rewrite map_app, (IHi H2). f_equal.
    unfold sub_sections, tkv. cbn [fst snd] in *. replace (map (tkey s) p ++ [tkey s k]) with (map (tkey s) (p ++ [k])) by (rewrite map_app; reflexivity).
    destruct it as [|v|sub|ts asp]; try reflexivity.
    - change (titem s (ITable sub)) with (ITable (ttbl s sub)). cbv beta iota. apply H1.
    - rewrite titem_aot. cbv beta iota. clear -H1. induction ts as [|e ts IHt]; [reflexivity|]. inversion H1; subst. cbn [map flat_map]. rewrite (map_app tent), H2, (IHt H3). reflexivity.
  Qed.

  Lemma assign_positions_t : forall (l : list section) n, assign_positions n (map tent l) = map (on_snd tent) (assign_positions n l).
  Proof.
    induction l as [|[[t p] a] l IH]; intro n; [reflexivity|]. cbn [map tent fst snd assign_positions].
    assert (Ep : t_position (ttbl s t) = t_position t) by (destruct t; rewrite ttbl_eq; reflexivity). rewrite Ep, IH. reflexivity.
  Qed.

  Theorem replay_stmts_t r : replay_stmts (ttbl s r) = replay_stmts r.
  Proof.
    unfold replay_stmts, display_order. change (@nil key) with (map (tkey s) []) at 1. rewrite sections_t, assign_positions_t, <- stable_sort_map.
    generalize (stable_sort (assign_positions 0 (sections r [] false))). intro l.
    induction l as [|[q x] l IH]; [reflexivity|]. cbn [map flat_map on_snd fst snd]. rewrite own_abs_t, IH. reflexivity.
  Qed.
End T.
