(* Proofs/DepthValue.v — lemmas behind Props/C05.v, part 3: values.
   1. `loop_d_agrees`     the loop of table_from_pairs with the per-pair depth check equals the
                          unchecked loop whenever every check passes (and conversely, when the
                          checked loop succeeds every check passed);
   2. `inline_depth_bound` an inline table built by table_from_pairs is less than LIMIT deep
                          (<= LIMIT - 1: the table itself + at most LIMIT - 2 levels below it);
   3. `value_depth_bound`  a value parsed with the recursion counter at d has at most
                          2 * LIMIT - 3 - d levels: arrays cost one counter unit per level, and
                          the innermost inline table brings up to LIMIT - 1 levels of its own
                          (its dotted keys are not seen by the counter, only by check_depth). *)
From Coq Require Import List Bool Arith NArith ZArith Lia.
From Coq.Strings Require Import Byte.
From TV Require Import Base.Prelude Base.Winnow Gen.Consts.
From TV Require Import Model.Tree Model.Parse.
From TV Require Import Proofs.NoPanicBase Proofs.NoPanicLex Proofs.NoPanicValue Proofs.DepthBase.
From TV Require Import Proofs.ModelFacts.
Import ListNotations.
From TV Require Import Base.WinnowFacts.

Lemma check_recursion_ok {A} (p : parser A) i a i' :
  check_recursion p i = Ok a i' ->
  S (depth i) < LIMIT /\ exists i2, p (set_depth (S (depth i)) i) = Ok a i2.
Proof.
  unfold check_recursion. cbn [set_depth depth].
  destruct (Nat.leb LIMIT (S (depth i))) eqn:E; [discriminate|]. apply Nat.leb_gt in E.
  destruct (p _) as [x i2|e i2|e i2|s] eqn:Ep; try discriminate.
  destruct (depth i2); [discriminate|]. intro H; inversion H; subst. split; [exact E|eauto].
Qed.

(* ---- 1. the checked and the unchecked loop ---------------------------------------------- *)
Lemma loop_d_agrees : forall pairs m,
  (forall p k v, In (p, (k, v)) pairs -> check_depth (length p + 1 + item_depth v) = false) ->
  table_from_pairs_loop_d m pairs = table_from_pairs_loop m pairs.
Proof.
  induction pairs as [|[path [k v]] tl IH]; intros m H; [reflexivity|].
  cbn [table_from_pairs_loop_d table_from_pairs_loop].
  rewrite (H path k v) by (left; reflexivity).
  destruct (inline_insert m false path _ k v) as [m'| |]; try reflexivity.
  apply IH. intros p k' v' Hin. apply (H p k' v'). right. exact Hin.
Qed.

Lemma loop_d_ok_checks : forall pairs m m',
  table_from_pairs_loop_d m pairs = COk m' ->
  forall p k v, In (p, (k, v)) pairs -> check_depth (length p + 1 + item_depth v) = false.
Proof.
  induction pairs as [|[path [k v]] tl IH]; intros m m' H p k' v' Hin; [destruct Hin|].
  cbn [table_from_pairs_loop_d] in H.
  destruct (check_depth (length path + 1 + item_depth v)) eqn:E; [discriminate|].
  destruct Hin as [Heq|Hin]; [inversion Heq; subst; exact E|].
  destruct (inline_insert m false path _ k v) as [m1| |]; try discriminate.
  exact (IH _ _ H _ _ _ Hin).
Qed.

Lemma loop_d_ok_agrees pairs m m' :
  table_from_pairs_loop_d m pairs = COk m' -> table_from_pairs_loop m pairs = COk m'.
Proof.
  intro H. rewrite <- (loop_d_agrees pairs m); [exact H|]. exact (loop_d_ok_checks _ _ _ H).
Qed.

(* the check is the only way the checked loop reports RecursionLimit earlier than the unchecked one *)
Lemma loop_d_limit : forall pairs m,
  (exists p k v, In (p, (k, v)) pairs /\ LIMIT <= length p + 1 + item_depth v) ->
  exists e, table_from_pairs_loop_d m pairs = e /\ (forall m', e <> COk m').
Proof.
  intros pairs m (p & k & v & Hin & Hl). eexists; split; [reflexivity|].
  intros m' H. pose proof (loop_d_ok_checks _ _ _ H _ _ _ Hin) as Hc.
  apply check_depth_false in Hc. lia.
Qed.

(* ---- 2. inline tables ------------------------------------------------------------------- *)
Lemma kvs_depth_push m k it : kvs_depth (kv_push m k it) = Nat.max (kvs_depth m) (item_depth it).
Proof.
  unfold kvs_depth, kv_push. rewrite lmax_app, lmax_cons, lmax_nil. cbn [snd]. lia.
Qed.

Lemma kvs_depth_get m k k' it : kv_get m k = Some (k', it) -> item_depth it <= kvs_depth m.
Proof.
  unfold kvs_depth. induction m as [|[k0 it0] m IH]; intro H; cbn [kv_get] in H; [discriminate|].
  rewrite lmax_cons. cbn [snd]. destruct (bytes_eqb (k_key k0) k).
  - inversion H; subst. lia.
  - specialize (IH H). lia.
Qed.

Lemma kvs_depth_set m k it : kvs_depth (kv_set m k it) <= Nat.max (kvs_depth m) (item_depth it).
Proof.
  unfold kvs_depth. induction m as [|[k0 it0] m IH]; cbn [kv_set]; [rewrite lmax_nil; lia|].
  destruct (bytes_eqb (k_key k0) k); rewrite !lmax_cons; cbn [snd]; lia.
Qed.

(* inline_insert nests the value below `length path` dotted tables and touches nothing else *)
Lemma inline_insert_depth : forall path m dh pe k v m',
  inline_insert m dh path pe k v = COk m' ->
  kvs_depth m' <= Nat.max (kvs_depth m) (length path + item_depth v).
Proof.
  induction path as [|pk ptl IH]; intros m dh pe k v m' H; cbn [inline_insert] in H.
  - destruct (Bool.eqb dh pe); [discriminate|].
    destruct (kv_get m (k_key k)); [discriminate|]. inversion H; subst.
    rewrite kvs_depth_push. cbn [length]. lia.
  - cbn [length]. destruct (kv_get m (k_key pk)) as [[k0 it0]|] eqn:G.
    + destruct it0 as [|v0|t0|ts0 sp0]; try discriminate.
      destruct v0 as [s0 r0 d0|l0 t0 c0 d0 sp0|sub pre imp dt dec sp]; try discriminate.
      destruct (negb imp); [discriminate|].
      destruct (inline_insert sub dt ptl pe k v) as [sub'| |] eqn:E; try discriminate.
      inversion H; subst. apply IH in E. apply kvs_depth_get in G.
      cbn [item_depth] in G. rewrite value_depth_inline in G.
      eapply Nat.le_trans; [apply kvs_depth_set|].
      cbn [item_depth]. rewrite value_depth_inline. lia.
    + destruct (inline_insert [] true ptl pe k v) as [sub| |] eqn:E; try discriminate.
      inversion H; subst. apply IH in E.
      rewrite kvs_depth_push. cbn [item_depth]. rewrite value_depth_inline.
      change (kvs_depth []) with 0 in E. lia.
Qed.

Lemma loop_d_depth : forall pairs m m',
  table_from_pairs_loop_d m pairs = COk m' ->
  kvs_depth m' <= Nat.max (kvs_depth m) (LIMIT - 2).
Proof.
  induction pairs as [|[path [k v]] tl IH]; intros m m' H; cbn [table_from_pairs_loop_d] in H.
  - inversion H; subst. lia.
  - destruct (check_depth (length path + 1 + item_depth v)) eqn:C; [discriminate|].
    apply check_depth_false in C.
    destruct (inline_insert m false path _ k v) as [m1| |] eqn:E; try discriminate.
    apply inline_insert_depth in E. apply IH in H. lia.
Qed.

(* the span bookkeeping of dotted tables rebuilds the same items with other spans *)
Lemma inline_set_spans_depth : forall path m e, kvs_depth (inline_set_spans m path e) <= kvs_depth m.
Proof.
  induction path as [|k ptl IH]; intros m e; cbn [inline_set_spans]; [lia|].
  destruct (kv_get m (k_key k)) as [[k0 it0]|] eqn:G; [|lia].
  destruct it0 as [|v0|t0|ts0 sp0]; try lia.
  destruct v0 as [s0 r0 d0|l0 t0 c0 d0 sp0|sub pre imp dt dec sp]; try lia.
  apply kvs_depth_get in G. cbn [item_depth] in G. rewrite value_depth_inline in G.
  eapply Nat.le_trans; [apply kvs_depth_set|].
  cbn [item_depth]. rewrite value_depth_inline. specialize (IH sub e). lia.
Qed.

Lemma inline_spans_pass_depth : forall pairs m, kvs_depth (inline_spans_pass m pairs) <= kvs_depth m.
Proof.
  unfold inline_spans_pass.
  induction pairs as [|[path [k v]] tl IH]; intros m; cbn [fold_left]; [lia|].
  eapply Nat.le_trans; [apply IH|]. apply inline_set_spans_depth.
Qed.

Lemma inline_depth_bound pairs pre v :
  table_from_pairs pairs pre = TmOk v -> value_depth v <= LIMIT - 1.
Proof.
  unfold table_from_pairs. destruct (table_from_pairs_loop_d [] pairs) as [m| |] eqn:E; try discriminate.
  intro H; inversion H; subst. rewrite value_depth_inline.
  apply loop_d_depth in E. change (kvs_depth []) with 0 in E. pose proof LIMIT_ge2.
  pose proof (inline_spans_pass_depth pairs m). lia.
Qed.

(* ---- 3. values -------------------------------------------------------------------------- *)
(* levels available to a value parsed while RecursionCheck.current = d *)
Definition VB (d : nat) : nat := 2 * LIMIT - 3 - d.

Section Step.
  Variable value_rec : parser value.
  Hypothesis Hm : mono value_rec.
  Hypothesis Hrec : forall i v i', value_rec i = Ok v i' -> value_depth v <= VB (depth i).

  Lemma array_value_depth i it i' :
    array_value value_rec i = Ok it i' -> item_depth it <= VB (depth i).
  Proof.
    unfold array_value. intro H.
    apply bind_inv in H as (pre & i1 & H1 & H).
    apply bind_inv in H as (v & i2 & H2 & H).
    apply bind_inv in H as (suf & i3 & H3 & H).
    inversion H; subst. cbn [item_depth]. rewrite value_depth_decorate.
    apply Hrec in H2.
    assert (Hd : depth i1 = depth i) by (revert H1; apply mono_dp; np).
    rewrite <- Hd. exact H2.
  Qed.

  Lemma array_values_depth i v i' :
    array_values value_rec i = Ok v i' -> value_depth v <= S (VB (depth i)).
  Proof.
    unfold array_values. intro H.
    apply bind_inv in H as (c & i1 & H1 & H).
    assert (Hd1 : depth i1 = depth i) by (revert H1; apply mono_dp; np).
    destruct c as [c|].
    - inversion H; subst. rewrite value_depth_array. change (items_depth []) with 0. lia.
    - apply bind_inv in H as (vals & i2 & H2 & H).
      apply bind_inv in H as (comma & i3 & H3 & H).
      apply bind_inv in H as (tr & i4 & H4 & H).
      inversion H; subst. rewrite value_depth_array. apply le_n_S.
      assert (Hall : Forall (fun it => item_depth it <= VB (depth i)) vals).
      { apply (separated0_all_at (fun j => depth j = depth i) (fun it => item_depth it <= VB (depth i))
                 (array_value value_rec) (byte_ ARRAY_SEP)) with (i := i1) (i' := i2); [| |exact Hd1|exact H2].
        - intros j a j' Hj Ha. rewrite <- Hj. split; [exact (array_value_depth _ _ _ Ha)|].
          revert Ha. apply mono_dp, array_value_mono, Hm.
        - intros j x j' Hj Hx. rewrite <- Hj. revert Hx. apply mono_dp. np. }
      unfold items_depth. apply lmax_le. rewrite Forall_forall in Hall. exact Hall.
  Qed.

  Lemma array_depth i v i' : array value_rec i = Ok v i' -> value_depth v <= S (VB (depth i)).
  Proof.
    unfold array. intro H.
    apply bind_inv in H as (c & i1 & H1 & H).
    apply bind_inv in H as (a & i2 & H2 & H).
    apply bind_inv in H as (c2 & i3 & H3 & H).
    inversion H; subst. apply cut_err_inv in H2.
    assert (Hd1 : depth i1 = depth i) by (revert H1; apply mono_dp; np).
    rewrite <- Hd1. exact (array_values_depth _ _ _ H2).
  Qed.

  Lemma inline_table_depth i v i' : inline_table value_rec i = Ok v i' -> value_depth v <= LIMIT - 1.
  Proof.
    unfold inline_table. intro H.
    apply bind_inv in H as (c & i1 & H1 & H).
    apply bind_inv in H as (t & i2 & H2 & H).
    apply bind_inv in H as (c2 & i3 & H3 & H).
    inversion H; subst. apply cut_err_inv in H2.
    apply try_map_inv in H2 as ([kv p] & _ & H2).
    exact (inline_depth_bound _ _ _ H2).
  Qed.

  Lemma value_body_depth i v i' : value_body value_rec i = Ok v i' -> value_depth v <= VB (depth i).
  Proof.
    unfold value_body. intro H. pose proof LIMIT_ge2 as HL.
    apply bind_inv in H as (b & i1 & H1 & H).
    assert (Hd1 : depth i1 = depth i) by (revert H1; apply mono_dp; np).
    (* the branches that can only produce scalars *)
    assert (Hsc : forall p, valP (fun w => value_depth w = 0) p -> p i1 = Ok v i' -> value_depth v <= VB (depth i)).
    { intros p Hp Hv. rewrite (Hp _ _ _ Hv). lia. }
    destruct (byte_eqb b QUOTATION_MARK || byte_eqb b APOSTROPHE).
    { revert H. apply Hsc, valP_scalar. reflexivity. }
    destruct (byte_eqb b ARRAY_OPEN).
    { apply check_recursion_ok in H as (Hlt & i2 & H).
      apply array_depth in H. cbn [set_depth depth] in H. rewrite Hd1 in *. unfold VB in *. lia. }
    destruct (byte_eqb b INLINE_TABLE_OPEN).
    { apply check_recursion_ok in H as (Hlt & i2 & H).
      apply inline_table_depth in H. rewrite Hd1 in *. unfold VB. lia. }
    destruct (in_class VALUE_NUMBER_START b).
    { revert H. apply Hsc. repeat apply valP_alt; apply valP_scalar; reflexivity. }
    repeat (match goal with H : (if ?c then _ else _) _ = Ok _ _ |- _ => destruct c end;
            [revert H; apply Hsc, valP_context, valP_scalar; reflexivity|]).
    revert H. apply Hsc, valP_context, valP_fail.
  Qed.

  Lemma value_step_depth i v i' : value_step value_rec i = Ok v i' -> value_depth v <= VB (depth i).
  Proof.
    unfold value_step. intro H.
    apply pmap_inv in H as ([v0 sp] & H & ->).
    apply with_span_inv in H as (v1 & H & E). inversion E; subst.
    rewrite value_depth_apply_raw. exact (value_body_depth _ _ _ H).
  Qed.
End Step.

Lemma dp_value_f fuel : dp (value_f fuel).
Proof. apply mono_dp, value_f_all. Qed.

Lemma dp_value : dp value_.
Proof. apply mono_dp, value_mono. Qed.

(* the bound, relative to the recursion counter at the start of the value *)
Lemma value_depth_bound_rel fuel : forall i v i',
  value_f fuel i = Ok v i' -> value_depth v <= 2 * LIMIT - 3 - depth i.
Proof.
  induction fuel as [|f IH]; intros i v i' H; [discriminate|].
  exact (value_step_depth _ (proj1 (value_f_all f)) IH _ _ _ H).
Qed.

Lemma value_depth_bound fuel i v i' :
  value_f fuel i = Ok v i' -> value_depth v <= 2 * LIMIT - 3.
Proof. intro H. apply value_depth_bound_rel in H. lia. Qed.

Lemma value_depth_bound_top i v i' : value_ i = Ok v i' -> value_depth v <= 2 * LIMIT - 3.
Proof. unfold value_. apply value_depth_bound. Qed.
