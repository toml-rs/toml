(* Proofs/SerdeRTTryFrom.v — C07, toml::Value::try_from / toml::Table::try_from (Model/Ser.v tv_ser, tv_ser_table):
   the witnesses of the REPAIRED defect C07-tryfrom-nested-none-dropped, kept as regression statements.
   `SerializeMap::serialize_value` (crates/toml/src/value.rs) swallowed ANY UnsupportedNone coming out of a field's
   value, not only a direct None, so that V { v: Some(vec![Some(1), None]) } became the empty table and read back as
   V { v: None }.  Since the repair only a None handed DIRECTLY to the field's serializer leaves the entry out, as in toml_edit. *)
From TV Require Import Base.Prelude Model.SerNum Spec.SerdeData Model.Ser Extract.Show.
Require Import String.

(* struct V { v: Option<Vec<Option<i32>>> }    V { v: Some(vec![Some(1), None]) } *)
Definition s3_ty : ty := TStruct (str "V") [(str "v", TOpt (TSeq (TOpt (TInt TI32))))].
Definition s3_val : sval := SRec [SSome (SSeq [SSome (SInt 1); SNone])].
(* struct V { a: i32, v: Vec<Option<i32>> }    V { a: 1, v: vec![None] } *)
Definition s3b_ty : ty := TStruct (str "V") [(str "a", TInt TI32); (str "v", TSeq (TOpt (TInt TI32)))].
Definition s3b_val : sval := SRec [SInt 1; SSeq [SNone]].

(* both are refused by Value::try_from and Table::try_from, with the error every other route gives *)
Theorem tryfrom_nested_none_refused :
  has_type s3_val s3_ty /\ has_type s3b_val s3b_ty
  /\ tv_ser s3_ty s3_val = Err EUnsupportedNone /\ tv_ser_table s3_ty s3_val = Err EUnsupportedNone
  /\ ser_value s3_ty s3_val = Err EUnsupportedNone
  /\ tv_ser s3b_ty s3b_val = Err EUnsupportedNone /\ tv_ser_table s3b_ty s3b_val = Err EUnsupportedNone
  /\ ser_value s3b_ty s3b_val = Err EUnsupportedNone.
Proof. repeat split; vm_compute; reflexivity. Qed.

(* the shapes a None can hide in below a field:
   struct N { a: Option<Option<i32>>, b: W(Option<i32>), c: (Option<i32>, i32), d: E, e: Option<i32>, m: BTreeMap<String, Vec<Option<i32>>> }
   enum E { P(Option<i32>), Q { x: Option<i32> } } *)
Definition nn_i : ty := TOpt (TInt TI32).
Definition nn_e : ty := TEnum (str "E") [(str "P", VNewtype nn_i); (str "Q", VStruct [(str "x", nn_i)])].
Definition nn_ty : ty :=
  TStruct (str "N") [(str "a", TOpt nn_i); (str "b", TNewtype (str "W") nn_i); (str "c", TTuple [nn_i; TInt TI32]);
                     (str "d", nn_e); (str "e", nn_i); (str "m", TMap TStr (TSeq nn_i))].
Definition nn_val (a b c d e m : sval) : sval := SRec [a; b; c; d; e; m].
Definition nn_1 : sval := SSome (SInt 1).
Definition nn_c : sval := SSeq [nn_1; SInt 2].
Definition nn_d : sval := SVariant 0 nn_1.
Definition nn_m (x : sval) : sval := SMap [(SStr (str "k"), SSeq [x])].

(* a None handed directly to a field (a, e, and x of the struct variant Q) leaves the entry out ... *)
Theorem tryfrom_direct_none_skipped :
  let v := nn_val SNone (SNewtype nn_1) nn_c (SVariant 1 (SRec [SNone])) SNone (nn_m nn_1) in
  has_type v nn_ty
  /\ tv_ser nn_ty v = Ok (VTab [(str "b", VInt 1); (str "c", VArr [VInt 1; VInt 2]); (str "d", VTab [(str "Q", VTab [])]);
                                (str "m", VTab [(str "k", VArr [VInt 1])])])
  /\ ser_value nn_ty v = tv_ser nn_ty v /\ tv_ser_table nn_ty v = tv_ser nn_ty v.
Proof. repeat split; vm_compute; reflexivity. Qed.

(* ... and a None anywhere deeper is an error, as on the document routes: Some(None), a newtype around None, None in a
   tuple, in a newtype variant's payload, in a sequence inside a map *)
Theorem tryfrom_nested_none_shapes :
  Forall (fun v => has_type v nn_ty /\ tv_ser nn_ty v = Err EUnsupportedNone /\ tv_ser_table nn_ty v = Err EUnsupportedNone
                   /\ ser_value nn_ty v = Err EUnsupportedNone)
    [nn_val (SSome SNone) (SNewtype nn_1) nn_c nn_d nn_1 (nn_m nn_1);
     nn_val (SSome nn_1) (SNewtype SNone) nn_c nn_d nn_1 (nn_m nn_1);
     nn_val (SSome nn_1) (SNewtype nn_1) (SSeq [SNone; SInt 2]) nn_d nn_1 (nn_m nn_1);
     nn_val (SSome nn_1) (SNewtype nn_1) nn_c (SVariant 0 SNone) nn_1 (nn_m nn_1);
     nn_val (SSome nn_1) (SNewtype nn_1) nn_c nn_d nn_1 (nn_m SNone)].
Proof. repeat (apply Forall_cons; [repeat split; vm_compute; reflexivity|]). apply Forall_nil. Qed.
