(* Proofs/SerdeRTRefuse.v — C07, the converse of errors_documented for toml_edit's ValueSerializer:
   a value containing a documented unsupported shape is refused (nothing is silently dropped or
   altered instead).  Together: ser_value succeeds IFF the value has no unsupported shape. *)
From TV Require Import Base.Prelude Model.SerNum Spec.SerdeData Model.Ser Proofs.SerdeRTKeys Proofs.SerdeRTErr Proofs.SerdeRTFamily.

Lemma ser_int_value_refused w z : ser_method_of w <> M_i64 -> (ser_method_of w = M_u64 -> fits_i64 z = false) ->
  exists e', ser_int_value w z = Err e'.
Proof.
  unfold ser_int_value, ser_int. intros Hm Hu. destruct (ser_method_of w).
  - contradiction.
  - unfold serialize_u64. rewrite (Hu eq_refl). eexists. reflexivity.
  - eexists. reflexivity.
  - eexists. reflexivity.
Qed.

Theorem unsupported_refused_gen c t v e : unsupported c t v e -> has_type_b t v = true ->
  exists e', ser_value t v = Err e' /\ (c = CField -> ser_map_value ser_value t v = Err e').
Proof.
  intros U Hty. apply (family_refused edit_family (fun _ => true) ser_int_value_refused) with (e := e); auto.
  - intros t0 a e0 B Ht0 _. apply (bad_key_fails t0 a e0 B Ht0).
  - apply keys_all_any.
Qed.

Theorem unsupported_refused t v e : has_type v t -> unsupported CElem t v e -> exists e', ser_value t v = Err e'.
Proof. intros Hty U. destruct (unsupported_refused_gen _ _ _ _ U Hty) as (e' & E & _). eauto. Qed.

(* ValueSerializer accepts a well-typed value exactly when it has no documented unsupported shape *)
Theorem ser_ok_iff_supported t v : has_type v t -> ((exists x, ser_value t v = Ok x) <-> supported t v).
Proof.
  intro Hty. split.
  - intros (x & Hx) e U. destruct (unsupported_refused t v e Hty U) as (e' & E). congruence.
  - apply supported_ok. exact Hty.
Qed.
