(* Proofs/SpansNestLex.v — C14, nesting: the reprs of the keys of a dotted key are consecutive windows,
   in source order (`kchain`), all inside the text `key` consumed. *)
From TV Require Import Base.Prelude Base.Winnow Gen.Consts.
From TV Require Import Model.Tree Model.Parse.
From TV Require Import Proofs.NoPanicBase Proofs.NoPanicLex.
From TV Require Import Proofs.SpansBase Proofs.SpansLex.
From TV Require Import Proofs.ModelFacts.
Require Import Lia ZifyBool ZifyN ZifyNat.

Fixpoint chain (lo hi : N) (l : list ospan) : Prop :=
  match l with
  | [] => (lo <= hi)%N
  | o :: tl => exists a b, o = Some (a, b) /\ (lo <= a)%N /\ (a <= b)%N /\ chain b hi tl
  end.
Definition kchain (lo hi : N) (l : list key) : Prop := chain lo hi (map key_span l).

Lemma chain_le : forall l lo hi, chain lo hi l -> (lo <= hi)%N.
Proof.
  induction l as [|o tl IH]; intros lo hi H; cbn [chain] in H; [exact H|].
  destruct H as (a & b & _ & H1 & H2 & H3). apply IH in H3. lia.
Qed.
Lemma chain_mono : forall l lo hi lo' hi', chain lo hi l -> (lo' <= lo)%N -> (hi <= hi')%N -> chain lo' hi' l.
Proof.
  induction l as [|o tl IH]; intros lo hi lo' hi' H L U; cbn [chain] in *; [lia|].
  destruct H as (a & b & E & H1 & H2 & H3). exists a, b. repeat split; auto; [lia|]. eapply IH; [exact H3|lia|exact U].
Qed.
Lemma chain_snoc : forall l lo mid hi a b,
  chain lo mid l -> (mid <= a)%N -> (a <= b)%N -> (b <= hi)%N -> chain lo hi (l ++ [Some (a, b)]).
Proof.
  induction l as [|o tl IH]; intros lo mid hi a b H H1 H2 H3; cbn [chain app] in *.
  - exists a, b. repeat split; auto. lia.
  - destruct H as (x & y & E & G1 & G2 & G3). exists x, y. repeat split; auto. eapply IH; eauto.
Qed.
Lemma chain_app_inv : forall l1 l2 lo hi, chain lo hi (l1 ++ l2) -> exists mid, chain lo mid l1 /\ chain mid hi l2.
Proof.
  induction l1 as [|o tl IH]; intros l2 lo hi H; cbn [chain app] in *.
  - exists lo. split; [lia|exact H].
  - destruct H as (x & y & E & G1 & G2 & G3). destruct (IH _ _ _ G3) as (mid & M1 & M2).
    exists mid. split; [|exact M2]. exists x, y. auto.
Qed.

(* ---- the separated(1.., key_part, '.') loop ------------------------------------------------------------ *)
Lemma key_part_span i k i' :
  key_part i = Ok k i' -> exists a b, key_span k = Some (a, b) /\ (pos i <= a)%N /\ (a < b)%N /\ (b <= pos i')%N.
Proof.
  intro E. apply key_part_exact in E as (a & b & H1 & H2 & H3 & R & _). exists a, b. unfold key_span. rewrite R. auto.
Qed.

Lemma key_loop_chain : forall fuel acc i l i',
  separated_loop fuel key_part (byte_ DOT_SEP) acc i = Ok l i' ->
  forall lo, chain lo (pos i) (map key_span (rev acc)) -> chain lo (pos i') (map key_span l).
Proof.
  induction fuel as [|f IH]; intros acc i l i' H lo Hc; cbn [separated_loop] in H; [discriminate|].
  destruct (byte_ DOT_SEP i) as [x i1|? ?|? ?|?] eqn:E; try discriminate.
  - destruct (Nat.eqb _ _); [discriminate|].
    destruct (key_part i1) as [a i2|? ?|? ?|?] eqn:E2; try discriminate.
    + eapply IH; [exact H|]. cbn [rev]. rewrite map_app. cbn [map].
      destruct (key_part_span _ _ _ E2) as (x1 & y1 & S & G1 & G2 & G3). rewrite S.
      assert (M : (pos i <= pos i1)%N) by (eapply mono_le; [|exact E]; np).
      eapply chain_snoc; [exact Hc|lia|lia|lia].
    + inversion H; subst. exact Hc.
  - inversion H; subst. exact Hc.
Qed.

Lemma key_raw_chain i l i' : key_raw i = Ok l i' -> kchain (pos i) (pos i') l.
Proof.
  unfold key_raw. intro E. apply try_map_inv in E as (l0 & E & G). destruct (check_depth _); inversion G; subst l0.
  apply context_inv in E. unfold separated1 in E. destruct (key_part i) as [a i1|? ?|? ?|?] eqn:E1; try discriminate.
  eapply key_loop_chain; [exact E|]. cbn [rev app map chain].
  destruct (key_part_span _ _ _ E1) as (x1 & y1 & S & G1 & G2 & G3). rewrite S. exists x1, y1. repeat split; auto; lia.
Qed.

(* the decor shuffle at the end of `key` does not touch the reprs *)
Lemma key_span_set_leaf k d : key_span (set_leaf k d) = key_span k. Proof. reflexivity. Qed.
Lemma key_span_set_dotted_prefix k r : key_span (set_dotted_prefix k r) = key_span k. Proof. reflexivity. Qed.
Lemma key_span_set_dotted_suffix k r : key_span (set_dotted_suffix k r) = key_span k. Proof. reflexivity. Qed.

Lemma fix_key_path_spans path p : fix_key_path path = Some p -> map key_span p = map key_span path.
Proof. apply (fix_key_path_map key_span key_span_set_leaf key_span_set_dotted_prefix key_span_set_dotted_suffix). Qed.

Lemma key_chain i l i' : key_ i = Ok l i' -> kchain (pos i) (pos i') l.
Proof.
  rewrite key_eq. intro E. apply bind_inv in E as (path & j & E1 & E).
  destruct (fix_key_path path) as [p|] eqn:F; [|discriminate]. apply ret_inv in E as [-> ->].
  unfold kchain. rewrite (fix_key_path_spans _ _ F). apply key_raw_chain, E1.
Qed.

