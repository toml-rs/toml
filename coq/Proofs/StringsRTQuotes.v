(* Proofs/StringsRTQuotes.v — mlb_quotes / mll_quotes (`quotes2`): one or two quote characters
   followed (peek) by a terminator, and the two terminators the string parsers use. *)
From TV Require Import Base.Prelude Base.Utf8 Base.Winnow Gen.Consts.
From TV Require Import Model.Trivia Model.Strings Model.Write.
From TV Require Import Proofs.StringsRTDefs Proofs.StringsRTBase Proofs.StringsRTWrite.
Require Import Lia ZifyBool ZifyN ZifyNat.

Definition t_ok (t : parser unit) (X : bytes) : Prop :=
  forall p d, exists i', t (mkIn X p d) = Ok tt i'.
Definition t_bt (t : parser unit) (X : bytes) : Prop :=
  forall p d, exists e i', t (mkIn X p d) = Bt e i'.

Lemma term_ok l t X p d : t_ok t X ->
  terminated (lit l) (peek t) (mkIn (l ++ X) p d) = Ok l (after l X p d).
Proof.
  intro H. unfold terminated.
  rewrite (bind_ok _ _ _ _ _ (lit_yes l X p d)).
  destruct (H (p + N.of_nat (length l))%N d) as [i' Hi]. unfold after at 1.
  rewrite (bind_ok _ _ _ _ _ (peek_ok _ _ _ _ Hi)). reflexivity.
Qed.
Lemma term_bt l t X p d : t_bt t X ->
  exists e i', terminated (lit l) (peek t) (mkIn (l ++ X) p d) = Bt e i'.
Proof.
  intro H. unfold terminated.
  rewrite (bind_ok _ _ _ _ _ (lit_yes l X p d)).
  destruct (H (p + N.of_nat (length l))%N d) as [e [i' Hi]]. unfold after at 1.
  rewrite (bind_bt _ _ _ _ _ (peek_bt _ _ _ _ Hi)). eauto.
Qed.
Lemma term_lit_bt {A} l (t : parser A) Y p d : strip_prefix l Y = None ->
  exists e i', terminated (lit l) (peek t) (mkIn Y p d) = Bt e i'.
Proof.
  intro H. unfold terminated. rewrite (bind_bt _ _ _ _ _ (lit_no l Y p d H)). eauto.
Qed.

(* the first attempt (two quote characters) backtracks *)
Definition two_bt (q : byte) (t : parser unit) (Y : bytes) : Prop :=
  strip_prefix [q; q] Y = None \/ exists X, Y = q :: q :: X /\ t_bt t X.
Definition one_bt (q : byte) (t : parser unit) (Y : bytes) : Prop :=
  strip_prefix [q] Y = None \/ exists X, Y = q :: X /\ t_bt t X.

Section Quotes.
  Variable q : byte.
  Hypothesis Hq : (b2n q <= 127)%N.

  Lemma q_valid1 : utf8_valid_b [q] = true.
  Proof. rewrite utf8_cons_ascii by (apply N.leb_le, Hq). reflexivity. Qed.
  Lemma q_valid2 : utf8_valid_b [q; q] = true.
  Proof. rewrite !utf8_cons_ascii by (apply N.leb_le, Hq). reflexivity. Qed.

  Lemma quotes2_two t X p d : t_ok t X ->
    quotes2 q t (mkIn (q :: q :: X) p d) = Ok [q; q] (after [q; q] X p d).
  Proof.
    intro H. unfold quotes2, unchecked_utf8. rewrite (term_ok [q; q] t X p d H : terminated _ _ (mkIn (q :: q :: X) p d) = _). rewrite q_valid2. reflexivity.
  Qed.

  Lemma two_bt_spec t Y p d : two_bt q t Y ->
    exists e i', terminated (lit [q; q]) (peek t) (mkIn Y p d) = Bt e i'.
  Proof.
    intros [H|[X [-> H]]]; [apply term_lit_bt; exact H|apply (term_bt [q; q]); exact H].
  Qed.

  Lemma quotes2_one t X p d : two_bt q t (q :: X) -> t_ok t X ->
    quotes2 q t (mkIn (q :: X) p d) = Ok [q] (after [q] X p d).
  Proof.
    intros H2 H1. unfold quotes2, unchecked_utf8 at 1.
    destruct (two_bt_spec t (q :: X) p d H2) as [e [i' He]]. rewrite He.
    unfold unchecked_utf8. rewrite (term_ok [q] t X p d H1 : terminated _ _ (mkIn (q :: X) p d) = _). rewrite q_valid1. reflexivity.
  Qed.

  Lemma quotes2_none t Y p d : two_bt q t Y -> one_bt q t Y ->
    exists e i', quotes2 q t (mkIn Y p d) = Bt e i'.
  Proof.
    intros H2 H1. unfold quotes2, unchecked_utf8 at 1.
    destruct (two_bt_spec t Y p d H2) as [e [i' He]]. rewrite He.
    unfold unchecked_utf8.
    destruct H1 as [H|[X [-> H]]].
    - destruct (term_lit_bt [q] t Y p d H) as [e1 [i1 H1]]. rewrite H1. eauto.
    - destruct (term_bt [q] t X p d H) as [e1 [i1 H1]]. cbn [app] in H1. rewrite H1. eauto.
  Qed.

  (* the terminator `none_of(q)` *)
  Definition t_other : parser unit := pvoid (none_of (byte_eqb q)).
  Lemma t_other_ok b X : byte_eqb q b = false -> t_ok t_other (b :: X).
  Proof.
    intros H p d. unfold t_other, pvoid, none_of. eexists.
    erewrite pmap_ok; [reflexivity|]. apply one_of_yes. rewrite H. reflexivity.
  Qed.
  Lemma t_other_bt_q X : t_bt t_other (q :: X).
  Proof.
    intros p d. unfold t_other, pvoid, none_of. do 2 eexists.
    erewrite pmap_bt; [reflexivity|]. apply one_of_no. cbn. rewrite byte_eqb_refl. reflexivity.
  Qed.
  Lemma t_other_bt_nil : t_bt t_other [].
  Proof.
    intros p d. unfold t_other, pvoid, none_of. do 2 eexists.
    erewrite pmap_bt; [reflexivity|]. apply one_of_no. exact I.
  Qed.

  (* the terminator `lit(delim)` *)
  Definition t_delim : parser unit := pvoid (lit [q; q; q]).
  Lemma t_delim_ok X : t_ok t_delim (q :: q :: q :: X).
  Proof.
    intros p d. unfold t_delim, pvoid. eexists.
    erewrite pmap_ok; [reflexivity|]. apply (lit_yes [q; q; q] X p d).
  Qed.
  Lemma t_delim_bt Y : strip_prefix [q; q; q] Y = None -> t_bt t_delim Y.
  Proof.
    intros H p d. unfold t_delim, pvoid. do 2 eexists.
    erewrite pmap_bt; [reflexivity|]. apply lit_no. exact H.
  Qed.
End Quotes.

(* what may follow the closing delimiter: not another quote character *)
Definition not_head (q : byte) (r : bytes) : Prop :=
  match r with [] => True | b :: _ => byte_eqb q b = false end.

Lemma strip3_2 q r : not_head q r -> strip_prefix [q; q; q] (q :: q :: r) = None.
Proof.
  intro H. cbn. rewrite !byte_eqb_refl. destruct r as [|b r]; [reflexivity|]. cbn in H. rewrite H. reflexivity.
Qed.
Lemma strip3_1 q r : not_head q r -> strip_prefix [q; q; q] (q :: r) = None.
Proof.
  intro H. cbn. rewrite !byte_eqb_refl. destruct r as [|b r]; [reflexivity|]. cbn in H. rewrite H. reflexivity.
Qed.
Lemma strip3_0 q r : not_head q r -> strip_prefix [q; q; q] r = None.
Proof.
  intro H. cbn. destruct r as [|b r]; [reflexivity|]. cbn in H. rewrite H. reflexivity.
Qed.

(* ---- the situations the multi-line parsers meet ------------------------------------------------- *)
Section Situations.
  Variable q : byte.
  Hypothesis Hq : (b2n q <= 127)%N.

  (* three quote characters ahead: the in-body quote parser (terminator: not a quote) refuses *)
  Lemma quotes2_other_qqq Z p d :
    exists e i', quotes2 q (t_other q) (mkIn (q :: q :: q :: Z) p d) = Bt e i'.
  Proof.
    apply quotes2_none.
    - right. exists (q :: Z). split; [reflexivity|apply t_other_bt_q].
    - right. exists (q :: q :: Z). split; [reflexivity|apply t_other_bt_q].
  Qed.

  (* one or two quote characters and then a different byte *)
  Lemma quotes2_other_1 b Z p d : byte_eqb q b = false ->
    quotes2 q (t_other q) (mkIn (q :: b :: Z) p d) = Ok [q] (after [q] (b :: Z) p d).
  Proof.
    intro H. apply quotes2_one; [exact Hq| |apply t_other_ok; exact H].
    left. cbn. rewrite byte_eqb_refl, H. reflexivity.
  Qed.
  Lemma quotes2_other_2 b Z p d : byte_eqb q b = false ->
    quotes2 q (t_other q) (mkIn (q :: q :: b :: Z) p d) = Ok [q; q] (after [q; q] (b :: Z) p d).
  Proof. intro H. apply quotes2_two; [exact Hq|apply t_other_ok; exact H]. Qed.

  (* in front of the closing delimiter, with 0, 1 or 2 quote characters belonging to the string *)
  Lemma quotes2_delim_0 r p d : not_head q r ->
    exists e i', quotes2 q (t_delim q) (mkIn (q :: q :: q :: r) p d) = Bt e i'.
  Proof.
    intro H. apply quotes2_none.
    - right. exists (q :: r). split; [reflexivity|apply t_delim_bt, strip3_1; exact H].
    - right. exists (q :: q :: r). split; [reflexivity|apply t_delim_bt, strip3_2; exact H].
  Qed.
  Lemma quotes2_delim_1 r p d : not_head q r ->
    quotes2 q (t_delim q) (mkIn (q :: q :: q :: q :: r) p d) = Ok [q] (after [q] (q :: q :: q :: r) p d).
  Proof.
    intro H. apply quotes2_one; [exact Hq| |apply t_delim_ok].
    right. exists (q :: q :: r). split; [reflexivity|apply t_delim_bt, strip3_2; exact H].
  Qed.
  Lemma quotes2_delim_2 r p d :
    quotes2 q (t_delim q) (mkIn (q :: q :: q :: q :: q :: r) p d) = Ok [q; q] (after [q; q] (q :: q :: q :: r) p d).
  Proof. apply quotes2_two; [exact Hq|apply t_delim_ok]. Qed.
End Situations.

(* ---- a run of other bytes, then nothing or a quote character --------------------------------------- *)
Definition starts_q (q : byte) (X : bytes) : Prop :=
  match X with [] => True | b :: _ => byte_eqb b q = true end.

Lemma split_at_q q s : exists c s', s = c ++ s' /\ forallb (fun b => negb (byte_eqb b q)) c = true /\ starts_q q s'.
Proof.
  destruct (span_while_split (fun b => negb (byte_eqb b q)) s) as [c [s' [H1 [H2 H3]]]]. exists c, s'.
  split; [exact H1|]. split; [exact H2|].
  destruct s' as [|x s']; [exact I|]. cbn in *. destruct (byte_eqb x q); [reflexivity|discriminate].
Qed.

Lemma starts_q_app q s X : starts_q q s -> starts_q q (s ++ q :: X).
Proof. destruct s as [|x s]; [intros _; apply byte_eqb_refl|exact (fun H => H)]. Qed.

(* ---- strings without a run of three quote characters --------------------------------------------- *)
Lemma no3_skip q k b r : byte_eqb b q = false -> no3 q k (b :: r) = no3 q 0 r.
Proof. intro H. cbn [no3]. rewrite H. reflexivity. Qed.

Lemma no3_cases q s : no3 q 0 s = true -> starts_q q s ->
  s = [] \/ s = [q] \/ s = [q; q] \/
  (exists b s2, s = q :: b :: s2 /\ byte_eqb b q = false /\ no3 q 0 (b :: s2) = true) \/
  (exists b s2, s = q :: q :: b :: s2 /\ byte_eqb b q = false /\ no3 q 0 (b :: s2) = true).
Proof.
  intros H Hh. destruct s as [|b0 s1]; [auto|]. cbn [starts_q] in Hh. apply byte_eqb_eq in Hh. subst b0.
  cbn [no3] in H. rewrite byte_eqb_refl in H. apply andb_true_iff in H as [_ H].
  destruct s1 as [|b1 s2]; [auto|]. cbn [no3] in H.
  destruct (byte_eqb b1 q) eqn:E1.
  - apply byte_eqb_eq in E1. subst b1. apply andb_true_iff in H as [_ H].
    destruct s2 as [|b2 s3]; [auto|]. cbn [no3] in H.
    destruct (byte_eqb b2 q) eqn:E2.
    + apply andb_true_iff in H as [H _]. change (0 + 1 + 1)%N with 2%N in H. discriminate.
    + right; right; right; right. exists b2, s3. repeat split; auto. rewrite no3_skip by exact E2. exact H.
  - right; right; right; left. exists b1, s2. repeat split; auto. rewrite no3_skip by exact E1. exact H.
Qed.

Lemma no3_app_other q : forall c k s, forallb (fun b => negb (byte_eqb b q)) c = true -> c <> [] ->
  no3 q k (c ++ s) = no3 q 0 s.
Proof.
  induction c as [|b c IH]; intros k s Hc Hne; [congruence|].
  cbn [forallb] in Hc. apply andb_true_iff in Hc as [Hb Hc].
  assert (E : byte_eqb b q = false) by (destruct (byte_eqb b q); [discriminate|reflexivity]).
  cbn [app]. rewrite no3_skip by exact E. destruct c as [|b' c']; [reflexivity|].
  apply IH; [exact Hc|discriminate].
Qed.
