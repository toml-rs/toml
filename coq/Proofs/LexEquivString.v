(* Proofs/LexEquivString.v — L1 for `string` = ml-basic-string / basic-string / ml-literal-string /
   literal-string: the ordered choice of the parser picks the alternative of the grammar, provided
   the token is not followed by a further quote character (maximal munch). *)
From TV Require Import Base.Prelude Base.Winnow Spec.Abnf Spec.Lex.
From TV Require Import Model.Strings.
From TV Require Import Proofs.LexEquivBase
  Proofs.LexEquivStrings Proofs.LexEquivMlLit Proofs.LexEquivMlBasic.
Require Import Lia ZifyBool ZifyN ZifyNat.

Theorem string_sound i v i' : string_ i = Ok v i' -> exists t, string_tok t v /\ splits i t i'.
Proof.
  unfold string_. intro H. apply alt_inv in H as [H | [_ H]].
  { apply ml_basic_string_sound in H as (t & Ht & S). exists t. split; [left; exact Ht|exact S]. }
  apply alt_inv in H as [H | [_ H]].
  { apply basic_string_sound in H as (t & Ht & S). exists t. split; [right; left; exact Ht|exact S]. }
  apply alt_inv in H as [H | [_ H]].
  { apply ml_literal_string_sound in H as (t & Ht & S). exists t. split; [right; right; left; exact Ht|exact S]. }
  apply literal_string_sound in H as (t & Ht & S). exists t. split; [right; right; right; exact Ht|exact S].
Qed.

(* neither kind of quote follows the token *)
Definition no_quote_follows (r : bytes) : Prop := stops (byte_eqb x22) r /\ stops (byte_eqb x27) r.

Lemma basic_body_head body v : star basic_char body v ->
  body = [] \/ exists b t, body = b :: t /\ byte_eqb x22 b = false.
Proof.
  intros [|t1 v1 t2 v2 [(b & Hb & -> & ->) | He] _]; [auto| |]; right.
  - exists b, t2. split; [reflexivity|]. revert Hb. cls. lia.
  - destruct (escaped_ascii t1 v1 He) as (_ & t' & ->). exists x5c, (t' ++ t2). auto.
Qed.

Lemma literal_body_head body : all literal_char body ->
  body = [] \/ exists b t, body = b :: t /\ byte_eqb x27 b = false.
Proof.
  destruct body as [|b t]; [auto|]. intro H. right. exists b, t. split; [reflexivity|].
  unfold all in H. cbn [forallb] in H. apply andb_true_iff in H as [Hb _]. revert Hb. cls. lia.
Qed.

Lemma basic_not_ml i t v r : basic_string_tok t v -> rest i = t ++ r -> stops (byte_eqb x22) r ->
  fails ml_basic_string i.
Proof.
  intros (_ & body & -> & St) H Hr. apply ml_basic_string_fails. intros s E. rewrite H in E.
  destruct (basic_body_head body v St) as [-> | (b & t' & -> & Nb)]; cbn [app] in E.
  - injection E as E. subst r. cbn [stops] in Hr. discriminate.
  - injection E as -> _. discriminate.
Qed.

Lemma literal_not_ml i t v r : literal_string_tok t v -> rest i = t ++ r -> stops (byte_eqb x27) r ->
  fails ml_literal_string i.
Proof.
  intros (_ & body & -> & St) H Hr. apply star_one_inv in St as [_ Hb].
  apply ml_literal_string_fails. intros s E. rewrite H in E.
  destruct (literal_body_head body Hb) as [-> | (b & t' & -> & Nb)]; cbn [app] in E.
  - injection E as E. subst r. cbn [stops] in Hr. discriminate.
  - injection E as -> _. discriminate.
Qed.

Theorem string_complete i t v r : string_tok t v -> rest i = t ++ r -> no_quote_follows r ->
  string_ i = Ok v (adv t i).
Proof.
  intros Ht H [Hr1 Hr2]. unfold string_. destruct Ht as [Ht | [Ht | [Ht | Ht]]].
  - apply alt_ok. apply (ml_basic_string_complete i t v r Ht H Hr1).
  - rewrite (alt_fails_l _ _ _ (basic_not_ml i t v r Ht H Hr1)).
    apply alt_ok. apply (basic_string_complete i t v r Ht H).
  - pose proof Ht as (_ & nl & body & E & _).
    assert (H' : rest i = x27 :: ([x27; x27] ++ nl ++ body ++ [x27; x27; x27]) ++ r) by (rewrite H, E; reflexivity).
    rewrite alt_fails_l by (apply ml_basic_string_fails; intros s Es; rewrite H' in Es; discriminate).
    rewrite alt_fails_l by (apply basic_string_fails; rewrite H'; reflexivity).
    apply alt_ok. apply (ml_literal_string_complete i t v r Ht H Hr2).
  - pose proof Ht as (_ & body & E & _).
    assert (H' : rest i = x27 :: (body ++ [x27]) ++ r) by (rewrite H, E; reflexivity).
    rewrite alt_fails_l by (apply ml_basic_string_fails; intros s Es; rewrite H' in Es; discriminate).
    rewrite alt_fails_l by (apply basic_string_fails; rewrite H'; reflexivity).
    rewrite (alt_fails_l _ _ _ (literal_not_ml i t v r Ht H Hr2)).
    apply (literal_string_complete i t v r Ht H).
Qed.

Corollary string_cut_only i e j : string_ i = Cut e j ->
  forall t v r, rest i = t ++ r -> no_quote_follows r -> ~ string_tok t v.
Proof. intros H t v r E Hr Ht. rewrite (string_complete i t v r Ht E Hr) in H. discriminate. Qed.
