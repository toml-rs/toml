(* Proofs/DatetimeStdTotal.v — C04 for the standalone date-time parser and printer
   (crates/toml_datetime/src/datetime.rs), on the checked model Model/DatetimeStdChk.v:
     chk_refines          wherever the checked model does not panic it returns what Model/DatetimeStd.v returns
     frac_loop_safe       the fraction loop with bound `b` and top exponent `e` reaches no overflow site
                          whenever b <= e + 1 and e <= 8   (the source has b = 9, e = 8)
     from_str_chk_panics  for EVERY byte string the only reachable site is the slice `whole[end..]`, and only if
                          the bytes are not UTF-8
     from_str_chk_total   for every &str (valid UTF-8) no site is reachable
     display_chk_total / display_chk_refuted   Display reaches a site exactly for Offset::Custom { minutes: i16::MIN } *)
From TV Require Import Base.Prelude Base.Utf8 Gen.Consts Model.Datetime Model.DatetimeStd Model.DatetimeStdChk.
Require Import Lia ZifyBool ZifyN ZifyNat.
From TV Require Import Base.BytesFacts Base.Utf8Facts.

Definition ascii_b (b : byte) : bool := (b2n b <=? 127)%N.

Lemma eqb_ascii : forall b c, byte_eqb b c = true -> ascii_b c = true -> ascii_b b = true.
Proof. intros b c H Hc. apply byte_eqb_eq in H. subst. exact Hc. Qed.

(* a continuation byte passes none of the four tests on a lead byte *)
Lemma valid_head_not_cont : forall b s, utf8_valid_b (b :: s) = true -> is_cont b = false.
Proof.
  intros b s. destruct (is_cont b) eqn:Ec; [|reflexivity]. unfold is_cont in Ec.
  cbn [utf8_valid_b]. cbv zeta. unfold inr.
  replace (b2n b <=? 127)%N with false by lia.
  replace ((194 <=? b2n b) && (b2n b <=? 223))%N with false by lia.
  replace ((224 <=? b2n b) && (b2n b <=? 239))%N with false by lia.
  replace ((240 <=? b2n b) && (b2n b <=? 244))%N with false by lia. discriminate.
Qed.

(* r is what remains of s after an all-ASCII prefix *)
Definition apre (s r : bytes) : Prop := exists pre, s = pre ++ r /\ forallb ascii_b pre = true.

Lemma apre_refl : forall s, apre s s.
Proof. intro s. exists []. split; reflexivity. Qed.
Lemma apre_cons : forall b s r, ascii_b b = true -> apre s r -> apre (b :: s) r.
Proof. intros b s r Hb [pre [-> Hp]]. exists (b :: pre). split; [reflexivity|]. cbn [forallb]. rewrite Hb. exact Hp. Qed.
Lemma apre_trans : forall a b c, apre a b -> apre b c -> apre a c.
Proof.
  intros a b c [p1 [-> H1]] [p2 [-> H2]]. exists (p1 ++ p2). split; [apply app_assoc|].
  rewrite forallb_app, H1, H2. reflexivity.
Qed.
Lemma apre_valid : forall s r, apre s r -> utf8_valid_b s = true -> utf8_valid_b r = true.
Proof.
  intros s r [pre [-> Hp]]. induction pre as [|b pre IH]; intro H; [exact H|].
  cbn [forallb] in Hp. apply andb_true_iff in Hp as [Hb Hp]. cbn [app] in H. rewrite (utf8_cons_ascii b _ Hb) in H.
  apply IH; assumption.
Qed.

(* the primitive cursors against Model/DatetimeStd.v *)
Lemma cdigit_eq : forall s, cdigit s = Done (sdigit s).
Proof.
  intros [|b r]; [reflexivity|]. unfold cdigit, sdigit. destruct (is_digit b) eqn:E; [|reflexivity].
  apply is_digit_iff in E. unfold usub. replace (48 <=? b2n b)%N with true by lia. reflexivity.
Qed.
Lemma cexpect_eq : forall c s, cexpect c s = Done (sexpect c s).
Proof. intros c [|b r]; [reflexivity|]. unfold cexpect, sexpect. destruct (byte_eqb b c); reflexivity. Qed.
Lemma cpeek_eq : forall s, cpeek s = Done (speek s).
Proof. reflexivity. Qed.
Lemma cnext_eq : forall s, cnext s = Done (snext s).
Proof. reflexivity. Qed.

Lemma sdigit_some : forall s v r, sdigit s = Some (v, r) ->
  exists b, s = b :: r /\ is_digit b = true /\ v = digit_val b /\ (v <= 9)%N.
Proof.
  intros [|b s] v r H; [discriminate|]. unfold sdigit in H. destruct (is_digit b) eqn:E; [|discriminate].
  injection H as <- <-. exists b. pose proof (proj1 (is_digit_iff b) E). unfold digit_val. repeat split; try assumption; lia.
Qed.
Lemma sexpect_some : forall c s u r, sexpect c s = Some (u, r) -> s = c :: r.
Proof.
  intros c [|b s] u r H; [discriminate|]. unfold sexpect in H. destruct (byte_eqb b c) eqn:E; [|discriminate].
  apply byte_eqb_eq in E. subst. injection H as _ <-. reflexivity.
Qed.

(* two decimal digits never leave u8 / i16, four never leave u16 *)
Lemma two_u8_done : forall a b, (a <= 9)%N -> (b <= 9)%N -> two_u8 a b = Done (a * 10 + b)%N.
Proof.
  intros a b Ha Hb. unfold two_u8, umul, uadd, cbind, U8_MAX.
  replace (a * 10 <=? 255)%N with true by lia. replace (a * 10 + b <=? 255)%N with true by lia. reflexivity.
Qed.

Lemma year_done : forall y1 y2 y3 y4, (y1 <= 9)%N -> (y2 <= 9)%N -> (y3 <= 9)%N -> (y4 <= 9)%N ->
  cbind (umul U16_MAX PYearMul y1 1000) (fun a =>
  cbind (umul U16_MAX PYearMul y2 100) (fun b =>
  cbind (uadd U16_MAX PYearAdd a b) (fun ab =>
  cbind (umul U16_MAX PYearMul y3 10) (fun c =>
  cbind (uadd U16_MAX PYearAdd ab c) (fun abc =>
  uadd U16_MAX PYearAdd abc y4))))) = Done (y1 * 1000 + y2 * 100 + y3 * 10 + y4)%N.
Proof.
  intros y1 y2 y3 y4 H1 H2 H3 H4. unfold umul, uadd, cbind, U16_MAX.
  replace (y1 * 1000 <=? 65535)%N with true by lia. replace (y2 * 100 <=? 65535)%N with true by lia.
  replace (y1 * 1000 + y2 * 100 <=? 65535)%N with true by lia. replace (y3 * 10 <=? 65535)%N with true by lia.
  replace (y1 * 1000 + y2 * 100 + y3 * 10 <=? 65535)%N with true by lia.
  replace (y1 * 1000 + y2 * 100 + y3 * 10 + y4 <=? 65535)%N with true by lia. reflexivity.
Qed.

Lemma two_i16_done : forall a b, (a <= 9)%N -> (b <= 9)%N ->
  cbind (imul POffMul (Z.of_N a) 10) (fun t => iadd POffAdd t (Z.of_N b)) = Done (Z.of_N (a * 10 + b)).
Proof.
  intros a b Ha Hb. unfold imul, iadd, cbind, in_i16, I16_MIN, I16_MAX.
  replace ((-32768 <=? Z.of_N a * 10) && (Z.of_N a * 10 <=? 32767))%Z with true by lia.
  replace ((-32768 <=? Z.of_N a * 10 + Z.of_N b) && (Z.of_N a * 10 + Z.of_N b <=? 32767))%Z with true by lia.
  f_equal. lia.
Qed.

(* the date: never panics, equals std_date, consumes ASCII *)
(* one step of the unchecked cursor in the goal: either it fails, and the goal closes, or the input is
   `b :: r` with b a digit (sdn) / the expected byte (se) *)
Ltac sdn b :=
  match goal with
  | |- context [sdigit ?x] =>
    let E := fresh "E" in
    destruct (sdigit x) as [[? ?]|] eqn:E; [apply sdigit_some in E as [b [-> [? [-> ?]]]]|cbv beta iota; try exact I; try reflexivity]
  end.
Ltac se c :=
  match goal with
  | |- context [sexpect c ?x] =>
    let E := fresh "E" in
    destruct (sexpect c x) as [[? ?]|] eqn:E; [apply sexpect_some in E as ->|cbv beta iota; try exact I; try reflexivity]
  end.

(* all such steps in a hypothesis `H : ... = Some _`, which a failing step contradicts *)
Ltac steps_in H c :=
  repeat match type of H with
         | context [sdigit ?x] =>
           let E := fresh "E" in destruct (sdigit x) as [[? ?]|] eqn:E; [apply sdigit_some in E as [? [-> [? [-> ?]]]]|discriminate H]
         | context [sexpect c ?x] =>
           let E := fresh "E" in destruct (sexpect c x) as [[? ?]|] eqn:E; [apply sexpect_some in E as ->|discriminate H]
         end.

Lemma date_chk_eq : forall s, date_chk s = Done (std_date s).
Proof.
  intro s. unfold date_chk, std_date, two, cpbind, sbind, sret, sfail, cfail, cret.
  rewrite cdigit_eq. sdn y1. rewrite cdigit_eq. sdn y2. rewrite cdigit_eq. sdn y3. rewrite cdigit_eq. sdn y4.
  rewrite cexpect_eq. se dash. rewrite cdigit_eq. sdn m1. rewrite cdigit_eq. sdn m2.
  rewrite cexpect_eq. se dash. rewrite cdigit_eq. sdn d1. rewrite cdigit_eq. sdn d2.
  unfold clift. rewrite year_done by assumption. rewrite !two_u8_done by assumption.
  destruct (_ || _); [reflexivity|]. destruct (_ || _); reflexivity.
Qed.

Lemma std_date_apre : forall s d r, std_date s = Some (d, r) -> apre s r.
Proof.
  intros s d r H. unfold std_date, two, sbind, sret, sfail in H.
  steps_in H dash.
  destruct (_ || _) in H; [discriminate|]. destruct (_ || _) in H; [discriminate|]. injection H as _ <-.
  repeat (apply apre_cons; [first [apply digit_ascii; assumption|reflexivity]|]). apply apre_refl.
Qed.

(* the fraction loop *)
Lemma pow10_succ : forall k, (10 ^ N.of_nat (S k) = 10 * 10 ^ N.of_nat k)%N.
Proof. intro k. rewrite Nat2N.inj_succ, N.pow_succ_r'. reflexivity. Qed.

(* one digit d <= 9 at weight P, below a total Q <= 10^9 that leaves room for ten such weights: every
   intermediate value fits u32, and room for the next, ten times smaller, weight remains *)
Lemma frac_step_fits : forall P acc d Q, (d <= 9)%N -> (acc + 10 * P <= Q)%N -> (Q <= 1000000000)%N ->
  (P <= 4294967295 /\ P * d <= 4294967295 /\ acc + P * d <= 4294967295 /\ acc + P * d + P <= Q)%N.
Proof. intros P acc d Q Hd Hroom HQ. assert (P * d <= 9 * P)%N by nia. lia. Qed.

(* with bound <= top + 1 and top <= 8 no arithmetic site is reachable, whatever the digits *)
Lemma frac_loop_safe : forall bound top, bound <= S top -> top <= 8 ->
  forall s i acc, (i <= bound -> (acc + 10 ^ N.of_nat (S top - i) <= 10 ^ N.of_nat (S top))%N) ->
  exists acc' e ds rest,
    frac_loop_chk bound top i acc s = Done (acc', e, rest) /\ s = ds ++ rest /\ forallb is_digit ds = true
    /\ e = i + List.length ds /\ match rest with b :: _ => is_digit b = false | [] => True end.
Proof.
  intros bound top Hb Ht. induction s as [|b s IH]; intros i acc Hinv.
  - exists acc, i, [], []. cbn. repeat split; try lia.
  - cbn [frac_loop_chk]. destruct (is_digit b) eqn:Ed.
    2:{ exists acc, i, [], (b :: s). cbn. repeat split; try lia; try exact Ed. }
    assert (Hnext : forall acc', (S i <= bound -> (acc' + 10 ^ N.of_nat (S top - S i) <= 10 ^ N.of_nat (S top))%N) ->
              exists acc'' e ds rest,
                frac_loop_chk bound top (S i) acc' s = Done (acc'', e, rest) /\ b :: s = ds ++ rest
                /\ forallb is_digit ds = true /\ e = i + List.length ds
                /\ match rest with b0 :: _ => is_digit b0 = false | [] => True end).
    { intros acc' H'. destruct (IH (S i) acc' H') as [a2 [e [ds [rest [E1 [E2 [E3 [E4 E5]]]]]]]].
      exists a2, e, (b :: ds), rest. cbn [app forallb List.length]. rewrite Ed, E3. subst s. repeat split; try assumption; lia. }
    destruct (Nat.ltb i bound) eqn:El.
    + apply Nat.ltb_lt in El. specialize (Hinv ltac:(lia)).
      pose proof (proj1 (is_digit_iff b) Ed) as Hd.
      assert (Hi : (N.of_nat i mod 4294967296 = N.of_nat i)%N) by (apply N.mod_small; lia).
      replace (S top - i) with (S (top - i)) in Hinv by lia. rewrite pow10_succ in Hinv.
      assert (Hp9 : (10 ^ N.of_nat (S top) <= 10 ^ 9)%N) by (apply N.pow_le_mono_r; lia).
      change (10 ^ 9)%N with 1000000000%N in Hp9.
      assert (He : (N.of_nat top - N.of_nat i = N.of_nat (top - i))%N) by lia.
      unfold usub, upow, umul, uadd, cbind, U32_MAX. rewrite Hi.
      replace (N.of_nat i <=? N.of_nat top)%N with true by lia. rewrite He.
      set (P := (10 ^ N.of_nat (top - i))%N) in *.
      replace (48 <=? b2n b)%N with true by lia.
      destruct (frac_step_fits P acc (b2n b - 48) _ ltac:(lia) Hinv Hp9) as (F1 & F2 & F3 & F4).
      apply N.leb_le in F1, F2, F3. rewrite F1, F2, F3.
      apply Hnext. intros _. replace (S top - S i) with (top - i) by lia. exact F4.
    + apply Nat.ltb_ge in El. apply Hnext. intro H. lia.
Qed.

(* against the unchecked loop, for the bound and exponent it has built in *)
Lemma frac_loop_refines : forall s i acc x, frac_loop_chk 9 8 i acc s = Done x -> frac_loop i acc s = x.
Proof.
  induction s as [|b s IH]; intros i acc x H; cbn [frac_loop_chk frac_loop] in *; [injection H as <-; reflexivity|].
  destruct (is_digit b) eqn:Ed; [|injection H as <-; reflexivity].
  destruct (Nat.ltb i 9) eqn:El; [|apply IH; exact H].
  apply Nat.ltb_lt in El.
  assert (Hi : (N.of_nat i mod 4294967296 = N.of_nat i)%N) by (apply N.mod_small; lia).
  unfold usub, upow, umul, uadd, cbind in H. rewrite Hi in H.
  destruct (N.of_nat i <=? N.of_nat 8)%N; [|discriminate].
  destruct (10 ^ (N.of_nat 8 - N.of_nat i) <=? U32_MAX)%N; [|discriminate].
  destruct (48 <=? b2n b)%N; [|discriminate].
  destruct (_ <=? U32_MAX)%N; [|discriminate]. destruct (_ <=? U32_MAX)%N; [|discriminate].
  apply IH in H. exact H.
Qed.

(* the time *)
(* what a checked cursor may do on input s: fail, return with an ASCII prefix consumed, or stop at the slice
   on bytes that are not UTF-8 *)
Definition safe_on {A} (s : bytes) (r : chk (option (A * bytes))) : Prop :=
  match r with
  | Panic site => site = PSlice /\ utf8_valid_b s = false
  | Done None => True
  | Done (Some (_, rest)) => apre s rest
  end.

Lemma time_chk_safe : forall bound top, bound <= S top -> top <= 8 -> forall s, safe_on s (time_chk bound top s).
Proof.
  intros bound top Hb Ht s. unfold time_chk, cpbind. rewrite cdigit_eq. sdn x. rewrite cdigit_eq. sdn x0. rewrite cexpect_eq. se colon.
  rewrite cdigit_eq. sdn x1. rewrite cdigit_eq. sdn x2. rewrite cexpect_eq. se colon. rewrite cdigit_eq. sdn x3. rewrite cdigit_eq. sdn x4.
  match goal with |- safe_on (_ :: _ :: _ :: _ :: _ :: _ :: _ :: _ :: ?R) _ => rename R into rest0 end.
  (* the eight bytes read so far *)
  match goal with |- safe_on ?S _ => set (s0 := S) end.
  assert (Hpre : apre s0 rest0).
  { unfold s0. repeat (apply apre_cons; [first [apply digit_ascii; assumption|reflexivity]|]). apply apre_refl. }
  assert (Hfin : forall ns r, apre s0 r ->
            safe_on s0 ((h <-- clift (two_u8 (digit_val x) (digit_val x0)) ;;
                         mi <-- clift (two_u8 (digit_val x1) (digit_val x2)) ;;
                         sec <-- clift (two_u8 (digit_val x3) (digit_val x4)) ;;
                         if (SD_HOUR_MAX <? h)%N then cfail
                         else if (SD_MINUTE_MAX <? mi)%N then cfail
                         else if (SD_SECOND_MAX <? sec)%N then cfail
                         else if (SD_NANO_MAX <? ns)%N then cfail
                         else cret (mkTime h mi sec ns)) r)).
  { intros ns r Hr. unfold cpbind, clift. rewrite !two_u8_done by assumption.
    destruct (_ <? _)%N; [exact I|]. destruct (_ <? _)%N; [exact I|]. destruct (_ <? _)%N; [exact I|]. destruct (_ <? _)%N; [exact I|].
    exact Hr. }
  cbn [cpeek]. destruct rest0 as [|b rest1]; [apply Hfin; exact Hpre|].
  destruct (byte_eqb b dot) eqn:Edot; [|apply Hfin; exact Hpre].
  cbn [cnext tl]. apply byte_eqb_eq in Edot. subst b.
  destruct (frac_loop_safe bound top Hb Ht rest1 0 0%N) as [acc [e [ds [rest [EL [Es [Hds [He Hrest]]]]]]]].
  { intros _. rewrite Nat.sub_0_r. apply N.le_refl. }
  rewrite EL. destruct (Nat.eqb e 0); [exact I|].
  assert (Hpre2 : apre s0 rest).
  { eapply apre_trans; [exact Hpre|]. exists (dot :: ds). split; [cbn [app]; rewrite Es; reflexivity|].
    cbn [forallb]. change (ascii_b dot) with true. cbn [andb].
    clear -Hds. rewrite forallb_forall in *. intros x Hx. apply digit_ascii, Hds, Hx. }
  unfold slice_from. destruct rest as [|b2 rest2]; [apply Hfin; exact Hpre2|].
  destruct (is_cont b2) eqn:Ec; [|apply Hfin; exact Hpre2].
  cbn [safe_on]. split; [reflexivity|].
  destruct (utf8_valid_b s0) eqn:Ev; [|reflexivity].
  pose proof (apre_valid _ _ Hpre2 Ev) as Hv. apply valid_head_not_cont in Hv. congruence.
Qed.

Lemma time_chk_refines : forall s res, time_chk 9 8 s = Done res -> std_time s = res.
Proof.
  intros s res. unfold time_chk, std_time, two, cpbind, sbind, sret, sfail, cfail, cret.
  rewrite cdigit_eq. sdn x; [|congruence]. rewrite cdigit_eq. sdn x0; [|congruence]. rewrite cexpect_eq. se colon; [|congruence].
  rewrite cdigit_eq. sdn x1; [|congruence]. rewrite cdigit_eq. sdn x2; [|congruence]. rewrite cexpect_eq. se colon; [|congruence].
  rewrite cdigit_eq. sdn x3; [|congruence]. rewrite cdigit_eq. sdn x4; [|congruence].
  unfold clift. rewrite !two_u8_done by assumption.
  cbn [cpeek speek].
  match goal with |- context [match ?R with [] => None | _ :: _ => _ end] => destruct R as [|b rest1] end.
  - intro HH. repeat (destruct (_ <? _)%N; [congruence|]). congruence.
  - destruct (byte_eqb b dot).
    + cbn [cnext snext tl].
      destruct (frac_loop_chk 9 8 0 0%N rest1) as [[[acc e] rest]|site] eqn:EL; [|discriminate].
      rewrite (frac_loop_refines _ _ _ _ EL).
      destruct (Nat.eqb e 0); [congruence|].
      destruct (slice_from rest) as [r'|site] eqn:Esl; [|discriminate].
      assert (r' = rest) by (unfold slice_from in Esl; destruct rest as [|b2 ?]; [congruence|destruct (is_cont b2); congruence]). subst r'.
      intro HH. repeat (destruct (_ <? _)%N; [congruence|]). congruence.
    + intro HH. repeat (destruct (_ <? _)%N; [congruence|]). congruence.
Qed.

(* the offset: two decimal digits each, so hours * 60 + minutes <= 99 * 60 + 99 whatever the range checks say *)
Lemma total_done : forall sign H M, (sign = 1 \/ sign = -1)%Z -> (H <= 99)%N -> (M <= 99)%N ->
  cbind (imul POffMul (Z.of_N H) 60) (fun t => cbind (iadd POffAdd t (Z.of_N M)) (fun u => imul POffMul sign u))
  = Done (sign * Z.of_N (H * 60 + M))%Z.
Proof.
  intros sign H M Hs HH HM. unfold imul, iadd, cbind, in_i16, I16_MIN, I16_MAX.
  replace ((-32768 <=? Z.of_N H * 60) && (Z.of_N H * 60 <=? 32767))%Z with true by lia.
  replace ((-32768 <=? Z.of_N H * 60 + Z.of_N M) && (Z.of_N H * 60 + Z.of_N M <=? 32767))%Z with true by lia.
  replace ((-32768 <=? sign * (Z.of_N H * 60 + Z.of_N M)) && (sign * (Z.of_N H * 60 + Z.of_N M) <=? 32767))%Z with true by lia.
  f_equal. lia.
Qed.

Lemma ltb_N2Z : forall a b, (Z.of_N a <? Z.of_N b)%Z = (a <? b)%N.
Proof. intros a b. destruct (a <? b)%N eqn:E; lia. Qed.

Lemma offset_chk_eq : forall s, offset_chk s = Done (std_offset s).
Proof.
  intro s. unfold offset_chk, std_offset, two, cpbind, sbind, sret, sfail, cfail, cret. cbn [cpeek speek].
  destruct s as [|b r]; [reflexivity|].
  destruct (byte_eqb b x5a || byte_eqb b x7a); [reflexivity|].
  (* both signs go the same way *)
  destruct (byte_eqb b plus); [|destruct (byte_eqb b dash); [|reflexivity]].
  all: cbn [cnext snext tl]; rewrite cdigit_eq; sdn h1; rewrite cdigit_eq; sdn h2; rewrite cexpect_eq; se colon.
  all: rewrite cdigit_eq; sdn m1; rewrite cdigit_eq; sdn m2.
  all: unfold clift; rewrite !two_i16_done by assumption; rewrite !ltb_N2Z.
  all: destruct (_ || _); [reflexivity|]; rewrite total_done by (try assumption; lia); destruct (_ && _); reflexivity.
Qed.

Lemma std_offset_apre : forall s o r, std_offset s = Some (o, r) -> apre s r.
Proof.
  intros s o r H. unfold std_offset, two, sbind, sret, sfail in H. cbn [speek] in H.
  destruct s as [|b s']; [injection H as _ <-; apply apre_refl|].
  destruct (byte_eqb b x5a || byte_eqb b x7a) eqn:Ez.
  - cbn [snext tl] in H. injection H as _ <-. apply apre_cons; [|apply apre_refl].
    apply orb_true_iff in Ez as [Ez|Ez]; eapply eqb_ascii; try exact Ez; reflexivity.
  - destruct (byte_eqb b plus) eqn:E1; [|destruct (byte_eqb b dash) eqn:E2; [|discriminate H]].
    all: assert (Hb : ascii_b b = true) by (eapply eqb_ascii; [eassumption|reflexivity]).
    all: cbn [snext tl] in H.
    all: steps_in H colon.
    all: destruct (_ || _) in H; [discriminate|]; destruct (_ && _) in H; [|discriminate]; injection H as _ <-.
    all: apply apre_cons; [exact Hb|]; repeat (apply apre_cons; [first [apply digit_ascii; assumption|reflexivity]|]); apply apre_refl.
Qed.

(* Datetime::from_str *)
Lemma apre_invalid : forall s r, apre s r -> utf8_valid_b r = false -> utf8_valid_b s = false.
Proof.
  intros s r H Hr. destruct (utf8_valid_b s) eqn:E; [|reflexivity]. rewrite (apre_valid s r H E) in Hr. discriminate.
Qed.

Theorem from_str_chk_with_panics : forall bound top, bound <= S top -> top <= 8 ->
  forall s site, from_str_chk_with bound top s = Panic site -> site = PSlice /\ utf8_valid_b s = false.
Proof.
  intros bound top Hb Ht s site. unfold from_str_chk_with.
  destruct (Nat.ltb (List.length s) SD_MIN_LEN); [discriminate|]. cbv zeta.
  destruct (match nth_error s 2 with Some b => byte_eqb b colon | None => false end).
  - unfold cpbind. pose proof (time_chk_safe bound top Hb Ht s) as Hs.
    destruct (time_chk bound top s) as [[[t r]|]|site'].
    + unfold cret. destruct r; discriminate.
    + discriminate.
    + intro H. injection H as <-. exact Hs.
  - unfold cpbind. rewrite date_chk_eq. destruct (std_date s) as [[d r]|] eqn:Ed; [|discriminate].
    pose proof (std_date_apre s d r Ed) as Hpre. cbn [cpeek].
    destruct r as [|b r']; [unfold cret; discriminate|].
    destruct (byte_eqb b x54 || byte_eqb b x74 || byte_eqb b x20) eqn:Edel; [|unfold cret; discriminate].
    cbn [cnext tl].
    assert (Hb' : ascii_b b = true).
    { apply orb_true_iff in Edel as [Edel|Edel]; [apply orb_true_iff in Edel as [Edel|Edel]|];
        eapply eqb_ascii; try exact Edel; reflexivity. }
    assert (Hpre' : apre s r').
    { eapply apre_trans; [exact Hpre|]. apply apre_cons; [exact Hb'|apply apre_refl]. }
    pose proof (time_chk_safe bound top Hb Ht r') as Hs.
    destruct (time_chk bound top r') as [[[t r2]|]|site'].
    + rewrite offset_chk_eq. destruct (std_offset r2) as [[o r3]|]; [unfold cret; destruct r3; discriminate|discriminate].
    + discriminate.
    + intro H. injection H as <-. destruct Hs as [-> Hinv]. split; [reflexivity|]. exact (apre_invalid s r' Hpre' Hinv).
Qed.

(* every byte string: only the slice site, and only on bytes that are not UTF-8 *)
Theorem from_str_chk_panics : forall s site, from_str_chk s = Panic site -> site = PSlice /\ utf8_valid_b s = false.
Proof.
  intros s site. unfold from_str_chk.
  (* the two side conditions are COMPUTED from the constants: a changed bound or exponent in the source
     (FRAC_DIGITS / FRAC_TOP_EXP, the generated SD_FRAC_DIGITS / SD_FRAC_TOP_EXP) breaks this proof *)
  apply from_str_chk_with_panics; apply Nat.leb_le; reflexivity.
Qed.

(* every &str: no site at all *)
Theorem from_str_chk_total : forall s, utf8_valid_b s = true -> forall site, from_str_chk s <> Panic site.
Proof. intros s Hv site H. apply from_str_chk_panics in H as [_ H]. congruence. Qed.

(* the arithmetic sites are unreachable on every byte string *)
Corollary from_str_chk_no_overflow : forall s site, from_str_chk s = Panic site -> site = PSlice.
Proof. intros s site H. exact (proj1 (from_str_chk_panics s site H)). Qed.

(* the checked model and Model/DatetimeStd.v (what the driver runs) agree wherever the checked one returns *)
Theorem chk_refines : forall s r, from_str_chk s = Done r -> std_from_str s = r.
Proof.
  intros s res. unfold from_str_chk, from_str_chk_with, std_from_str.
  (* Model/DatetimeStd.v has 9 and 8 built in: the constants must be convertible with them *)
  change FRAC_DIGITS with 9. change FRAC_TOP_EXP with 8.
  destruct (Nat.ltb (List.length s) SD_MIN_LEN); [congruence|]. cbv zeta.
  destruct (match nth_error s 2 with Some b => byte_eqb b colon | None => false end).
  - unfold cpbind, sbind. destruct (time_chk 9 8 s) as [x|site] eqn:Et; [|discriminate].
    rewrite (time_chk_refines s x Et). destruct x as [[t r]|]; [|congruence].
    unfold cret, sret. destruct r; congruence.
  - unfold cpbind, sbind. rewrite date_chk_eq. destruct (std_date s) as [[d r]|]; [|congruence].
    cbn [cpeek speek]. destruct r as [|b r']; [unfold cret, sret; congruence|].
    destruct (byte_eqb b x54 || byte_eqb b x74 || byte_eqb b x20); [|unfold cret, sret; congruence].
    cbn [cnext snext tl].
    destruct (time_chk 9 8 r') as [x|site] eqn:Et; [|discriminate].
    rewrite (time_chk_refines r' x Et). destruct x as [[t r2]|]; [|congruence].
    rewrite offset_chk_eq. destruct (std_offset r2) as [[o r3]|]; [|congruence].
    unfold cret, sret. destruct r3; congruence.
Qed.

(* Display *)
Theorem display_chk_total : forall d, rust_datetime d ->
  d_offset d <> Some (OffCustom I16_MIN) -> exists t, display_chk d = Done t.
Proof.
  intros d [_ [_ Ho]] Hne. unfold display_chk. destruct (d_offset d) as [[|m]|]; cbn [cbind display_offset_chk]; eauto.
  cbn [rust_offset] in Ho. unfold in_i16, I16_MIN, I16_MAX in *.
  destruct (m <? 0)%Z eqn:Em; cbn [cbind]; [|eauto].
  unfold imul, in_i16, I16_MIN, I16_MAX.
  assert (m <> -32768)%Z by (intro; subst; apply Hne; reflexivity).
  replace ((-32768 <=? m * -1) && (m * -1 <=? 32767))%Z with true by lia. cbn [cbind]. eauto.
Qed.

(* ... and exactly that value reaches the overflow site of `minutes *= -1` *)
Theorem display_chk_refuted :
  exists d, rust_datetime d /\ display_chk d = Panic PDispNeg.
Proof.
  exists (mkDT None None (Some (OffCustom I16_MIN))). split; [|reflexivity].
  unfold rust_datetime. cbn. repeat split.
Qed.

Theorem display_chk_panics : forall d site, rust_datetime d -> display_chk d = Panic site ->
  site = PDispNeg /\ d_offset d = Some (OffCustom I16_MIN).
Proof.
  intros d site Hr H. destruct (d_offset d) as [[|m]|] eqn:Eo.
  - unfold display_chk in H. rewrite Eo in H. discriminate.
  - destruct (Z.eq_dec m I16_MIN) as [->|Hne].
    + split; [|reflexivity]. unfold display_chk in H. rewrite Eo in H.
      assert (E : display_offset_chk (OffCustom I16_MIN) = Panic PDispNeg) by reflexivity. rewrite E in H. cbn [cbind] in H. congruence.
    + destruct (display_chk_total d Hr) as [t Ht]; [rewrite Eo; congruence|congruence].
  - unfold display_chk in H. rewrite Eo in H. discriminate.
Qed.

Lemma to_N_div_mod a : (0 <= a)%Z ->
  Z.to_N (a / 60) = (Z.to_N a / 60)%N /\ Z.to_N (a mod 60) = (Z.to_N a mod 60)%N.
Proof. intro H. split; [apply Z2N.inj_div|apply Z2N.inj_mod]; lia. Qed.

(* where it returns, the checked printer prints what Model/DatetimeStd.v prints *)
Theorem display_chk_refines : forall d t, display_chk d = Done t -> display_datetime d = t.
Proof.
  intros d t. unfold display_chk, display_datetime. destruct (d_offset d) as [[|m]|]; cbn [cbind display_offset_chk display_offset].
  - intro H. injection H as <-. reflexivity.
  - destruct (m <? 0)%Z eqn:Em; cbn [cbind].
    + unfold imul. destruct (in_i16 (m * -1)); [|discriminate]. cbn [cbind]. intro H. injection H as <-.
      destruct (to_N_div_mod (m * -1) ltac:(lia)) as [-> ->]. replace (Z.abs m) with (m * -1)%Z by lia. reflexivity.
    + intro H. injection H as <-.
      destruct (to_N_div_mod m ltac:(lia)) as [-> ->]. rewrite (Z.abs_eq m) by lia. reflexivity.
  - intro H. injection H as <-. reflexivity.
Qed.
