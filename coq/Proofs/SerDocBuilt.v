(* Proofs/SerDocBuilt.v — C07 through text: the toml_edit tree of a text route (Model/SerDoc.v, built from the
   Model/SerFmt.v layouts) lies inside the constructed trees of Model/Build.v, below the parser's recursion limit when
   the value tree is; hence (Proofs/BuiltRTDoc.v) its text parses back to its own abstract tree, values before tables.

   SerFmt's `pretty_item` / `fmt_item` applied to what ValueSerializer built (`emb x`) are first brought to one
   structural form `lay x` (they agree on such input): everything after that is by induction on the value tree. *)
From TV Require Import Base.Prelude Gen.Consts.
From TV Require Import Model.Numbers Model.Tree Model.Parse Model.Build.
From TV Require Import Proofs.BuiltRTValue Proofs.BuiltRTTop Proofs.BuiltRTDocEncode Proofs.BuiltRTDoc.
From TV Require Import Spec.SerdeData Model.SerFmt Model.SerDoc.
From TV Require Import Proofs.SerdeRTBase Proofs.SerdeRTFmt Proofs.SerDocWf.
From Coq Require Import Permutation.
Require Import Lia.
From TV Require Import Base.ListFacts.

(* ---- the layout of the formatted routes, structurally ------------------------------------------------------------ *)
Definition tabb (x : tomlval) : bool := match x with VTab _ => true | _ => false end.
Definition all_tabs (xs : list tomlval) : bool := nonempty xs && forallb tabb xs.

Fixpoint lay (x : tomlval) : SerFmt.item :=
  match x with
  | VArr xs => if all_tabs xs then SerFmt.IAot (map lay xs) else emb x
  | VTab es => ITab (map (fun kx => (fst kx, lay (snd kx))) es)
  | _ => ILeaf x
  end.

Lemma emb_arr xs : emb (VArr xs) = IArr (map emb xs). Proof. reflexivity. Qed.
Lemma emb_tab es : emb (VTab es) = IInl (map (fun kx => (fst kx, emb (snd kx))) es). Proof. reflexivity. Qed.
Lemma lay_arr xs : lay (VArr xs) = if all_tabs xs then SerFmt.IAot (map lay xs) else emb (VArr xs). Proof. reflexivity. Qed.
Lemma lay_tab es : lay (VTab es) = ITab (map (fun kx => (fst kx, lay (snd kx))) es). Proof. reflexivity. Qed.

Lemma is_value_emb x : is_value (emb x) = true.
Proof. destruct x; reflexivity. Qed.

Lemma aot_cond_emb xs : aot_cond (map emb xs) = all_tabs xs.
Proof.
  unfold aot_cond, all_tabs. f_equal; [destruct xs; reflexivity|].
  induction xs as [|x xs IH]; [reflexivity|]. cbn [map forallb]. rewrite IH. destruct x; reflexivity.
Qed.

Lemma map_entries_ext {A B} (f g : A -> B) (es : list (bytes * A)) :
  Forall (fun kx => f (snd kx) = g (snd kx)) es ->
  map (fun kx => (fst kx, f (snd kx))) es = map (fun kx => (fst kx, g (snd kx))) es.
Proof. intro H. apply map_ext_Forall. eapply Forall_impl; [|exact H]. intros kx E. simpl in E. rewrite E. reflexivity. Qed.

(* inside a value nothing changes *)
Lemma pretty_true_emb : forall x, pretty_item true (emb x) = emb x.
Proof.
  induction x using tomlval_ind2; try reflexivity.
  - rewrite emb_arr, pretty_arr. cbn [negb andb]. f_equal. rewrite map_map. apply map_ext_Forall.
    eapply Forall_impl; [|exact H]. intros x Hx. simpl. rewrite is_value_emb. exact Hx.
  - rewrite emb_tab, pretty_inl. cbn [negb]. f_equal. rewrite map_map. cbn [fst snd].
    apply (map_entries_ext (fun x => pretty_item true (emb x)) emb). exact H.
Qed.

Lemma fmt_true_emb : forall x, fmt_item true (emb x) = emb x /\ fmt_value (emb x) = emb x.
Proof.
  induction x using tomlval_ind2; try (split; reflexivity).
  - assert (E : map (fun e => if is_value e then fmt_value e else e) (map emb xs) = map emb xs).
    { rewrite map_map. apply map_ext_Forall. eapply Forall_impl; [|exact H]. intros x [_ Hx]. simpl. rewrite is_value_emb. exact Hx. }
    split; [rewrite emb_arr, fmt_arr; cbn [negb andb]|rewrite emb_arr, fmtv_arr]; rewrite E; reflexivity.
  - assert (E : map (fun kx => (fst kx, fmt_item true (snd kx))) (map (fun kx => (fst kx, emb (snd kx))) es)
                = map (fun kx => (fst kx, emb (snd kx))) es).
    { rewrite map_map. cbn [fst snd]. apply (map_entries_ext (fun x => fmt_item true (emb x)) emb).
      eapply Forall_impl; [|exact H]. intros kx [Hx _]. exact Hx. }
    split; [rewrite emb_tab, fmt_inl; cbn [negb]|rewrite emb_tab, fmtv_inl]; rewrite E; reflexivity.
Qed.

Lemma all_tabs_forall xs : all_tabs xs = true -> Forall (fun x => exists es, x = VTab es) xs.
Proof.
  unfold all_tabs. intro H. apply andb_true_iff in H as [_ H]. rewrite forallb_forall in H. apply Forall_forall.
  intros x Hx. specialize (H x Hx). destruct x; try discriminate. eauto.
Qed.

(* where a header can stand, tables become tables and non-empty arrays of tables arrays of tables *)
Lemma pretty_false_emb : forall x, pretty_item false (emb x) = lay x.
Proof.
  induction x using tomlval_ind2; try reflexivity.
  - rewrite emb_arr, pretty_arr, lay_arr, aot_cond_emb. cbn [negb andb]. destruct (all_tabs xs) eqn:Ea.
    + f_equal. rewrite map_map. apply map_ext_Forall. pose proof (all_tabs_forall xs Ea) as Ht.
      rewrite Forall_forall in *. intros x Hx. destruct (Ht x Hx) as (es & ->). rewrite <- (H _ Hx). reflexivity.
    + rewrite emb_arr. f_equal. rewrite map_map. apply map_ext_Forall. apply Forall_forall. intros x _. simpl.
      rewrite is_value_emb. apply pretty_true_emb.
  - rewrite emb_tab, pretty_inl, lay_tab. cbn [negb]. f_equal. rewrite map_map. cbn [fst snd].
    apply (map_entries_ext (fun x => pretty_item false (emb x)) lay). exact H.
Qed.

Lemma fmt_false_emb : forall x, fmt_item false (emb x) = lay x.
Proof.
  induction x using tomlval_ind2; try reflexivity.
  - rewrite emb_arr, fmt_arr, lay_arr, aot_cond_emb. cbn [negb andb]. destruct (all_tabs xs) eqn:Ea.
    + f_equal. rewrite map_map. apply map_ext_Forall. pose proof (all_tabs_forall xs Ea) as Ht.
      rewrite Forall_forall in *. intros x Hx. destruct (Ht x Hx) as (es & ->). rewrite <- (H _ Hx). reflexivity.
    + rewrite emb_arr. f_equal. rewrite map_map. apply map_ext_Forall. apply Forall_forall. intros x _. simpl.
      rewrite is_value_emb. apply fmt_true_emb.
  - rewrite emb_tab, fmt_inl, lay_tab. cbn [negb]. f_equal. rewrite map_map. cbn [fst snd].
    apply (map_entries_ext (fun x => fmt_item false (emb x)) lay). exact H.
Qed.

(* the three layouts of a root table *)
Lemma layout_plain es : layout EditString (VTab es) = ITab (map (fun kx => (fst kx, emb (snd kx))) es).
Proof. reflexivity. Qed.
Lemma layout_formatted r es : formatted r = true -> layout r (VTab es) = lay (VTab es).
Proof.
  intro Hr. rewrite lay_tab.
  destruct r; try discriminate Hr; cbn [layout]; unfold doc_edit_pretty, doc_toml, pretty_doc, fmt_doc;
    rewrite root_entries_tab, map_map; cbn [fst snd]; f_equal; apply map_ext; intros [k x]; cbn [fst snd];
    rewrite ?pretty_false_emb, ?fmt_false_emb; reflexivity.
Qed.

(* ---- the tree ------------------------------------------------------------------------------------------------------ *)
Lemma default_built : decor_built decor_default.
Proof. split; left; reflexivity. Qed.

Section Doc.
  Variable fd : N -> fval.
  Variable back : fval -> N.
  Variable ml : bool.
  Hypothesis Horacle : float_oracle fd back.
  Local Notation BV := (BuiltValue scalar_ok key_ok).
  (* the arrays of the route are constructed values (Model/Build.v BV_array for the one-line layout) *)
  Hypothesis Harr : forall es, Forall BV es -> Forall (fun e => value_decor e = decor_default) es -> BV (mk_array ml es).

  (* -- values -- *)
  Definition vof (x : tomlval) : value := doc_value fd ml (emb x).
  Lemma vof_arr xs : vof (VArr xs) = mk_array ml (map vof xs).
  Proof. unfold vof. rewrite emb_arr. cbn [doc_value]. rewrite map_map. reflexivity. Qed.
  Lemma vof_tab es :
    vof (VTab es) = VInline (mk_inline_items (map (fun kx => (fst kx, vof (snd kx))) es)) REmpty false false decor_default None.
  Proof. unfold vof. rewrite emb_tab. cbn [doc_value]. rewrite map_map. reflexivity. Qed.

  Lemma mk_array_decor es : value_decor (mk_array ml es) = decor_default.
  Proof. unfold mk_array. destruct (ml && (2 <=? length es)); reflexivity. Qed.
  Lemma ml_elem_abs e : abs_value (ml_elem e) = abs_value e.
  Proof. destruct e; reflexivity. Qed.
  Lemma mk_array_abs es : abs_value (mk_array ml es) = AArr (map abs_value es).
  Proof.
    unfold mk_array. destruct (ml && (2 <=? length es)); [|apply abs_built_array].
    replace (map (fun e => IValue (ml_elem e)) es) with (map IValue (map ml_elem es)) by (rewrite map_map; reflexivity).
    rewrite abs_built_array, map_map. f_equal. apply map_ext. intro e. apply ml_elem_abs.
  Qed.
  Lemma mk_array_depth es : value_depth (mk_array ml es) = S (fold_right (fun e acc => Nat.max (value_depth e) acc) 0 es).
  Proof.
    rewrite value_depth_adepth, mk_array_abs. cbn [adepth]. f_equal.
    induction es as [|e es IH]; [reflexivity|]. cbn [map fold_right]. rewrite IH, <- value_depth_adepth. reflexivity.
  Qed.

  Theorem vof_built : forall x, out_ok x = true -> BV (vof x) /\ value_decor (vof x) = decor_default.
  Proof.
    induction x using tomlval_ind2; intro Hok.
    - split; [|reflexivity]. unfold vof. cbn. constructor; [exact Hok|apply default_built].
    - split; [|reflexivity]. unfold vof. cbn. constructor; [exact Hok|apply default_built].
    - split; [|reflexivity]. unfold vof. cbn. constructor; [|apply default_built].
      cbn [out_ok] in Hok. apply N.ltb_lt in Hok. exact (proj1 (Horacle b Hok)).
    - split; [|reflexivity]. unfold vof. cbn. constructor; [exact I|apply default_built].
    - split; [|reflexivity]. unfold vof. cbn. constructor; [exact Hok|apply default_built].
    - cbn [out_ok] in Hok. apply forallb_Forall in Hok. rewrite vof_arr. split; [|apply mk_array_decor].
      rewrite Forall_forall in H, Hok.
      apply Harr; apply Forall_forall; intros e He; apply in_map_iff in He as (x & <- & Hx); apply (H x Hx (Hok x Hx)).
    - cbn [out_ok] in Hok. apply andb_true_iff in Hok as [Hnd Hes]. apply nodup_bytes_NoDup in Hnd. apply forallb_Forall in Hes.
      rewrite vof_tab. split; [|reflexivity]. rewrite Forall_forall in H, Hes.
      constructor; [apply default_built| | |].
      + rewrite map_map. cbn [fst]. exact Hnd.
      + rewrite map_map. cbn [fst]. apply Forall_forall. intros k Hk. apply in_map_iff in Hk as (kx & <- & Hkx).
        specialize (Hes kx Hkx). apply andb_true_iff in Hes as [Hu _]. exact Hu.
      + rewrite map_map. cbn [snd]. apply Forall_forall. intros e He. apply in_map_iff in He as (kx & <- & Hkx).
        specialize (Hes kx Hkx). apply andb_true_iff in Hes as [_ Ho]. apply (H kx Hkx Ho).
  Qed.

  Lemma vof_depth : forall x, value_depth (vof x) <= tv_depth x.
  Proof.
    induction x using tomlval_ind2; try (cbn; lia).
    - rewrite vof_arr, mk_array_depth. cbn [tv_depth]. apply le_n_S.
      rewrite Forall_forall in H. induction xs as [|x xs IHl]; [cbn; lia|]. cbn [map fold_right].
      pose proof (H x (or_introl eq_refl)). specialize (IHl (fun y Hy => H y (or_intror Hy))). lia.
    - rewrite vof_tab. cbn [value_depth tv_depth]. apply le_n_S. unfold mk_inline_items.
      rewrite Forall_forall in H. induction es as [|kx es IHl]; [cbn; lia|]. cbn [map fold_right fst snd].
      pose proof (H kx (or_introl eq_refl)). specialize (IHl (fun y Hy => H y (or_intror Hy))). lia.
  Qed.

  (* -- items -- *)
  Definition iof (x : tomlval) : Tree.item := doc_item fd ml (lay x).
  Definition ents (es : list (bytes * tomlval)) : list (bytes * Tree.item) := map (fun kx => (fst kx, iof (snd kx))) es.
  Definition tab_pair (x : tomlval) : bool * list (bytes * Tree.item) :=
    match x with VTab es => (nonempty (ents es), ents es) | _ => (false, []) end.
  (* written as `key = value` *)
  Definition is_line (x : tomlval) : bool :=
    match x with VTab _ => false | VArr xs => negb (all_tabs xs) | _ => true end.

  Lemma fmt_tbl_the l : fmt_tbl l = the_tbl (nonempty l) l None.
  Proof. reflexivity. Qed.
  Lemma iof_tab es : iof (VTab es) = ITable (fmt_tbl (ents es)).
  Proof. unfold iof, ents. rewrite lay_tab. cbn [doc_item]. rewrite map_map. reflexivity. Qed.
  Lemma iof_aot xs : all_tabs xs = true ->
    iof (VArr xs) = Tree.IAot (map (fun p => Tbl (mk_tbl_items (snd p)) decor_default (fst p) false None None) (map tab_pair xs)) None.
  Proof.
    intro H. unfold iof. rewrite lay_arr, H. cbn [doc_item]. f_equal. rewrite !map_map. apply map_ext_Forall.
    eapply Forall_impl; [|apply (all_tabs_forall xs H)]. intros x (es & ->). rewrite lay_tab. cbn [tab_pair fst snd].
    unfold fmt_tbl, ents. rewrite map_map. reflexivity.
  Qed.
  Lemma iof_line x : is_line x = true -> iof x = IValue (vof x).
  Proof.
    destruct x; try reflexivity; [|discriminate]. cbn [is_line]. intro H. apply negb_true_iff in H.
    unfold iof, vof. rewrite lay_arr, H. reflexivity.
  Qed.
  Lemma doc_item_emb x : doc_item fd ml (emb x) = IValue (vof x).
  Proof. destruct x; reflexivity. Qed.

  Definition prints_all (l : list (bytes * Tree.item)) : Prop := Forall (fun kv => item_prints (snd kv) = true) l.
  Definition item_good (x : tomlval) : Prop :=
    BuiltItem scalar_ok key_ok (iof x) /\ item_prints (iof x) = true /\
    forall es, x = VTab es -> BuiltEntries scalar_ok key_ok (ents es) /\ prints_all (ents es).

  Lemma ents_good es :
    NoDup (map fst es) -> Forall key_ok (map fst es) -> Forall (fun kx => item_good (snd kx)) es ->
    BuiltEntries scalar_ok key_ok (ents es) /\ prints_all (ents es).
  Proof.
    intros Hnd Hk H. unfold ents, prints_all. rewrite Forall_forall in H. split.
    - constructor; rewrite map_map; cbn [fst snd]; [exact Hnd|exact Hk|].
      apply Forall_forall. intros it Hit. apply in_map_iff in Hit as (kx & <- & Hkx). apply (H kx Hkx).
    - apply Forall_forall. intros kv Hkv. apply in_map_iff in Hkv as (kx & <- & Hkx). cbn [snd]. apply (H kx Hkx).
  Qed.

  Lemma existsb_all_true {A} (f : A -> bool) l : l <> [] -> Forall (fun x => f x = true) l -> existsb f l = true.
  Proof. intros Hne H. destruct H as [|x l Hx _]; [contradiction|]. cbn [existsb]. rewrite Hx. reflexivity. Qed.

  Lemma table_good l : BuiltEntries scalar_ok key_ok l -> prints_all l ->
    BuiltItem scalar_ok key_ok (ITable (fmt_tbl l)) /\ item_prints (ITable (fmt_tbl l)) = true.
  Proof.
    intros HE Hpr.
    assert (Hex : nonempty l = true -> existsb (fun kv => item_prints (snd kv)) l = true).
    { intro Hne. apply existsb_all_true; [destruct l; [discriminate|discriminate]|exact Hpr]. }
    split; [apply (BI_table scalar_ok key_ok (nonempty l) l HE Hex)|].
    cbn [item_prints]. rewrite fmt_tbl_the, tbl_prints_the. cbn [t_implicit the_tbl].
    destruct (nonempty l) eqn:E; [rewrite (Hex eq_refl); reflexivity|reflexivity].
  Qed.

  Lemma out_ok_tab es : out_ok (VTab es) = true ->
    NoDup (map fst es) /\ Forall key_ok (map fst es) /\ Forall (fun kx => out_ok (snd kx) = true) es.
  Proof.
    cbn [out_ok]. intro Hok. apply andb_true_iff in Hok as [Hnd Hes]. apply nodup_bytes_NoDup in Hnd. apply forallb_Forall in Hes.
    split; [exact Hnd|]. rewrite Forall_forall in Hes. split; apply Forall_forall.
    - intros k Hk. apply in_map_iff in Hk as (kx & <- & Hkx). specialize (Hes kx Hkx). apply andb_true_iff in Hes as [Hu _]. exact Hu.
    - intros kx Hkx. specialize (Hes kx Hkx). apply andb_true_iff in Hes as [_ Ho]. exact Ho.
  Qed.

  Theorem iof_good : forall x, out_ok x = true -> item_good x.
  Proof.
    induction x using tomlval_ind2; intro Hok;
      try (split; [rewrite iof_line by reflexivity; constructor; apply vof_built, Hok|split; [reflexivity|discriminate]]).
    - (* arrays *)
      assert (Hel : Forall (fun x => out_ok x = true) xs) by (apply forallb_Forall; exact Hok).
      unfold item_good. destruct (all_tabs xs) eqn:Ea.
      + rewrite (iof_aot xs Ea). split; [|split; [|discriminate]].
        * constructor. apply Forall_forall. intros p Hp. apply in_map_iff in Hp as (x & <- & Hx).
          pose proof (all_tabs_forall xs Ea) as Ht. rewrite Forall_forall in H, Hel, Ht.
          destruct (Ht x Hx) as (es & ->). cbn [tab_pair snd]. destruct (H _ Hx (Hel _ Hx)) as (_ & _ & G). apply (G es eq_refl).
        * destruct xs; [discriminate|reflexivity].
      + split; [|split; [|discriminate]].
        * rewrite iof_line by (cbn [is_line]; rewrite Ea; reflexivity). constructor. apply vof_built, Hok.
        * rewrite iof_line by (cbn [is_line]; rewrite Ea; reflexivity). reflexivity.
    - (* tables *)
      destruct (out_ok_tab es Hok) as (Hnd & Hk & Hes).
      assert (G : BuiltEntries scalar_ok key_ok (ents es) /\ prints_all (ents es)).
      { apply ents_good; [exact Hnd|exact Hk|]. rewrite Forall_forall in *. intros kx Hkx. apply (H kx Hkx (Hes kx Hkx)). }
      unfold item_good. rewrite iof_tab. destruct (table_good _ (proj1 G) (proj2 G)) as [G1 G2].
      split; [exact G1|]. split; [exact G2|]. intros es' E. injection E as <-. exact G.
  Qed.

  Lemma iof_depths : forall x, item_hdepth (iof x) <= tv_depth x /\ item_vdepth (iof x) <= tv_depth x.
  Proof.
    induction x using tomlval_ind2;
      try (rewrite iof_line by reflexivity; cbn [item_hdepth item_vdepth]; split; [lia|apply vof_depth]).
    - destruct (all_tabs xs) eqn:Ea.
      + rewrite (iof_aot xs Ea). cbn [item_hdepth item_vdepth tv_depth].
        pose proof (all_tabs_forall xs Ea) as Ht. rewrite Forall_forall in H, Ht.
        set (B := fold_right (fun x acc => Nat.max (tv_depth x) acc) 0 xs).
        set (ts := map (fun p : bool * list (bytes * Tree.item) => Tbl (mk_tbl_items (snd p)) decor_default (fst p) false None None) (map tab_pair xs)).
        assert (G : forall t, In t ts -> tbl_hdepth t <= B /\ tbl_vdepth t <= B).
        { intros t Hin. unfold ts in Hin. rewrite map_map in Hin. apply in_map_iff in Hin as (x & <- & Hx).
          destruct (Ht x Hx) as (es & ->). destruct (H _ Hx) as [H1 H2]. rewrite iof_tab in H1, H2.
          cbn [item_hdepth item_vdepth] in H1, H2. cbn [tab_pair fst snd]. unfold fmt_tbl in H1, H2.
          pose proof (fold_max_ge tv_depth xs (VTab es) Hx) as Hm. fold B in Hm. lia. }
        split.
        * apply le_n_S. apply (fold_max_bound tbl_hdepth). intros t Hin. apply G, Hin.
        * apply Nat.le_le_succ_r. apply (fold_max_bound tbl_vdepth). intros t Hin. apply G, Hin.
      + rewrite iof_line by (cbn [is_line]; rewrite Ea; reflexivity). cbn [item_hdepth item_vdepth]. split; [lia|apply vof_depth].
    - rewrite iof_tab. cbn [item_hdepth item_vdepth tv_depth]. rewrite fmt_tbl_the, hdepth_the, vdepth_the.
      set (B := fold_right (fun kx acc => Nat.max (tv_depth (snd kx)) acc) 0 es).
      rewrite Forall_forall in H.
      assert (G : forall kv, In kv (ents es) -> item_hdepth (snd kv) <= B /\ item_vdepth (snd kv) <= B).
      { intros kv Hkv. unfold ents in Hkv. apply in_map_iff in Hkv as (kx & <- & Hkx). cbn [snd].
        destruct (H kx Hkx) as [H1 H2].
        pose proof (fold_max_ge (fun kx : bytes * tomlval => tv_depth (snd kx)) es kx Hkx) as Hm. cbn [snd] in Hm. fold B in Hm. lia. }
      split.
      + apply le_n_S. apply (fold_max_bound (fun kv : bytes * Tree.item => item_hdepth (snd kv))). intros kv Hkv. apply G, Hkv.
      + apply Nat.le_le_succ_r. apply (fold_max_bound (fun kv : bytes * Tree.item => item_vdepth (snd kv))). intros kv Hkv. apply G, Hkv.
  Qed.

  (* -- the root -- *)
  Definition root_ents (r : troute) (es : list (bytes * tomlval)) : list (bytes * Tree.item) :=
    if formatted r then ents es else map (fun kx => (fst kx, IValue (vof (snd kx)))) es.

  Lemma doc_root_eq r es :
    doc_root_tbl fd ml (formatted r) (layout r (VTab es))
    = the_tbl (formatted r && nonempty (root_ents r es)) (root_ents r es) None.
  Proof.
    unfold root_ents. destruct (formatted r) eqn:Hr.
    - rewrite (layout_formatted r es Hr), lay_tab. cbn [doc_root_tbl]. rewrite map_map. reflexivity.
    - destruct r; try discriminate Hr. rewrite layout_plain. cbn [doc_root_tbl]. rewrite map_map. cbn [fst snd andb].
      unfold the_tbl. do 2 f_equal. apply map_ext. intros [k x]. cbn [fst snd]. rewrite doc_item_emb. reflexivity.
  Qed.

  Theorem root_built r es : out_ok (VTab es) = true ->
    BuiltTbl scalar_ok key_ok (doc_root_tbl fd ml (formatted r) (layout r (VTab es))).
  Proof.
    intro Hok. rewrite doc_root_eq. destruct (out_ok_tab es Hok) as (Hnd & Hk & Hes).
    exists (root_ents r es), (formatted r && nonempty (root_ents r es)), None. split; [|split; [left; reflexivity|reflexivity]].
    unfold root_ents. destruct (formatted r).
    - apply ents_good; [exact Hnd|exact Hk|]. eapply Forall_impl; [|exact Hes]. intros kx Hx. apply iof_good, Hx.
    - constructor; rewrite map_map; cbn [fst snd]; [exact Hnd|exact Hk|].
      apply Forall_forall. intros it Hit. apply in_map_iff in Hit as (kx & <- & Hkx). rewrite Forall_forall in Hes.
      constructor. apply vof_built, (Hes kx Hkx).
  Qed.

  Theorem root_depths r es : tv_depth (VTab es) <= LIMIT ->
    tbl_hdepth (doc_root_tbl fd ml (formatted r) (layout r (VTab es))) < LIMIT /\
    tbl_vdepth (doc_root_tbl fd ml (formatted r) (layout r (VTab es))) < LIMIT.
  Proof.
    intro Hd. cbn [tv_depth] in Hd. rewrite doc_root_eq, hdepth_the, vdepth_the.
    set (B := fold_right (fun kx acc => Nat.max (tv_depth (snd kx)) acc) 0 es) in *.
    assert (G : forall kv, In kv (root_ents r es) -> item_hdepth (snd kv) <= B /\ item_vdepth (snd kv) <= B).
    { intros kv Hkv. unfold root_ents in Hkv. destruct (formatted r); apply in_map_iff in Hkv as (kx & <- & Hkx); cbn [snd];
        pose proof (fold_max_ge (fun kx : bytes * tomlval => tv_depth (snd kx)) es kx Hkx) as Hm; cbn [snd] in Hm; fold B in Hm.
      - destruct (iof_depths (snd kx)). lia.
      - cbn [item_hdepth item_vdepth]. pose proof (vof_depth (snd kx)). lia. }
    split.
    - apply Nat.le_lt_trans with B; [|lia]. apply (fold_max_bound (fun kv : bytes * Tree.item => item_hdepth (snd kv))). intros kv Hkv. apply G, Hkv.
    - apply Nat.le_lt_trans with B; [|lia]. apply (fold_max_bound (fun kv : bytes * Tree.item => item_vdepth (snd kv))). intros kv Hkv. apply G, Hkv.
  Qed.
End Doc.
