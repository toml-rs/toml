(* Proofs/SpansNestValue.v — C14, nesting inside values: every value returned by `value` satisfies
   `vnest` (Proofs/SpansDefs.v): all that an array / braces-delimited inline table stores lies inside its
   span, tables made of dotted keys cover their keys and values; recursively. *)
From TV Require Import Base.Prelude Base.Winnow.
From TV Require Import Model.Trivia Model.Tree Model.Parse.
From TV Require Import Proofs.NoPanicBase Proofs.NoPanicLex Proofs.NoPanicValue.
From TV Require Import Proofs.SpansDefs Proofs.SpansBase Proofs.SpansLex Proofs.SpansValue Proofs.SpansExact
                       Proofs.SpansNestLex Proofs.SpansNestInline.
From TV Require Import Proofs.DocumentOps.
Require Import Lia ZifyBool ZifyN ZifyNat.

Lemma vnest_decorate v p s : vnest (value_decorate v p s) = vnest v.
Proof. destruct v; reflexivity. Qed.
Lemma value_span_decorate v p s : value_span (value_decorate v p s) = value_span v.
Proof. destruct v; reflexivity. Qed.

Definition body_nest (v : value) : Prop :=
  match v with
  | VScalar _ _ _ => True
  | VArray vals _ _ _ _ => forallb inest vals = true
  | VInline items _ im dt _ _ => Inest items = true /\ im = false /\ dt = false
  end.

Lemma vnest_apply_raw a b v : body_in a b v -> body_nest v -> vnest (apply_raw v (a, b)) = true.
Proof.
  intros Hb Hn. unfold apply_raw.
  destruct v as [s [r|] d|vals tr c d [sp|]|items pre im dt d [sp|]]; cbn [body_in body_nest] in *; try contradiction;
    cbn [value_decorate].
  - reflexivity.
  - destruct Hb as [H1 H2]. rewrite vnest_array, H1, H2, Hn. reflexivity.
  - destruct Hb as [H1 H2]. destruct Hn as (H3 & -> & ->). rewrite vnest_inline. unfold items_in in H1. rewrite H1, H2, H3. reflexivity.
Qed.

(* `key = value`: the keys are consecutive windows from the start on, the value's span lies right of them *)
Lemma keyval_of_nest (val : parser value) (suf : parser (N * N)) :
  mono val -> valP (fun v => vnest v = true) val ->
  (forall i v i', val i = Ok v i' -> value_span v = Some (pos i, pos i')) ->
  forall i path k it i',
    keyval_of val suf i = Ok (path, (k, it)) i' ->
    exists mid av e v', it = IValue v' /\ kchain (pos i) mid (path ++ [k]) /\ value_span v' = Some (av, e)
                        /\ (mid <= av)%N /\ (av <= e)%N /\ vnest v' = true.
Proof.
  intros Mv Hn Hx i path k it i' E. unfold keyval_of in E. apply bind_inv in E as (kp & j & E0 & E). apply bind_inv in E as ([[pre v] suf0] & j' & E1 & E).
  destruct (pop_key kp) as [[path0 k0]|] eqn:P; [|discriminate]. apply ret_inv in E as [X ->]. inversion X; subst path0 k0 it. clear X.
  pose proof (key_chain _ _ _ E0) as Hch. rewrite (pop_key_some _ _ _ P) in Hch.
  apply cut_err_inv in E1. apply bind_inv in E1 as (x0 & j0 & F0 & E1). apply bind_inv in E1 as (x1 & j1 & F1 & E1).
  apply bind_inv in E1 as (x2 & j2 & F2 & E1). apply bind_inv in E1 as (x3 & j3 & F3 & E1).
  apply ret_inv in E1 as [X ->]. inversion X; subst x1 x2 x3. clear X.
  pos_le F0. pos_le F1. assert (M1 : (pos j1 <= pos j2)%N) by (eapply mono_le; [exact Mv|exact F2]).
  exists (pos j), (pos j1), (pos j2), (value_decorate v (raw_with_span pre) (raw_with_span suf0)).
  rewrite value_span_decorate, vnest_decorate, (Hx _ _ _ F2), (Hn _ _ _ F2). repeat split; auto; lia.
Qed.

Section Knot.
  Variable value_rec : parser value.
  Hypothesis Hm : mono value_rec.
  Hypothesis Hw : winP (fun lo hi v => value_in lo hi v = true) value_rec.
  Hypothesis Hn : valP (fun v => vnest v = true) value_rec.
  Hypothesis Hx : forall i v i', value_rec i = Ok v i' -> value_span v = Some (pos i, pos i').

  Lemma array_value_nest : valP (fun it => inest it = true) (array_value value_rec).
  Proof.
    intros i it i' E. unfold array_value in E. binds E. apply ret_inv in E as [-> ->].
    rewrite inest_value, vnest_decorate. eapply Hn, E1.
  Qed.
  Lemma array_values_nest : valP body_nest (array_values value_rec).
  Proof.
    intros i v i' E. unfold array_values in E. binds E. destruct a as [c|].
    - apply ret_inv in E as [-> ->]. reflexivity.
    - binds E. apply ret_inv in E as [-> ->]. cbn [body_nest]. apply forallb_Forall.
      eapply (valP_separated0_all (fun it => inest it = true)); [apply array_value_nest|exact E1].
  Qed.
  Lemma array_nest : valP body_nest (array value_rec).
  Proof.
    intros i v i' E. unfold array in E. binds E. apply ret_inv in E as [-> ->]. apply cut_err_inv in E1.
    eapply array_values_nest, E1.
  Qed.

  Lemma inline_keyval_nest : valP pair_nest (inline_keyval value_rec).
  Proof.
    intros i [path [k it]] i' E.
    rewrite inline_keyval_of in E.
    destruct (keyval_of_nest value_rec (span_ ws) Hm Hn Hx _ _ _ _ _ E) as (mid & av & e & v' & -> & Hch & Sv & L1 & L2 & Hv).
    exists (pos i), mid, av, e. cbn [fst snd item_span]. auto 6.
  Qed.

  Lemma inline_body_nest : valP body_nest (inline_body value_rec).
  Proof.
    intros i v i' E. unfold inline_body in E. apply try_map_inv in E as ([kv p] & E & G).
    unfold inline_kvs in E. binds E. apply ret_inv in E as [X ->]. inversion X; subst. clear X.
    assert (Hp : Forall pair_nest a).
    { eapply (valP_separated0_all pair_nest); [apply inline_keyval_nest|exact E0]. }
    destruct (table_from_pairs_nest _ _ _ Hp G) as (items & -> & Hi). cbn [body_nest]. auto.
  Qed.
  Lemma inline_table_nest : valP body_nest (inline_table value_rec).
  Proof.
    intros i v i' E. rewrite inline_table_eq in E. binds E. apply ret_inv in E as [-> ->]. apply cut_err_inv in E1.
    eapply inline_body_nest, E1.
  Qed.

  Lemma valP_scalar_nest {A} (p : parser A) (f : A -> scalar) : valP body_nest (pmap (fun x => scalar_value (f x)) p).
  Proof. eapply valP_pmap; [apply valP_true|]. intros a _. exact I. Qed.

  Lemma value_body_nest : valP body_nest (value_body value_rec).
  Proof.
    unfold value_body. apply valP_bind; intro b.
    repeat match goal with |- valP _ (if ?c then _ else _) => destruct c end;
      repeat apply valP_context; repeat apply valP_alt;
      try (apply valP_scalar_nest); try apply valP_fail.
    - apply valP_check_recursion, array_nest.
    - apply valP_check_recursion, inline_table_nest.
  Qed.

  Lemma value_step_nest : valP (fun v => vnest v = true) (value_step value_rec).
  Proof.
    intros i v i' E. apply value_step_exact in E as (v0 & E & ->).
    apply vnest_apply_raw; [|eapply value_body_nest, E].
    eapply (value_body_win _ Hm Hw); [exact E|apply N.le_refl|apply N.le_refl].
  Qed.
End Knot.

Lemma value_f_nest n : valP (fun v => vnest v = true) (value_f n).
Proof.
  induction n as [|n IH].
  - cbn [value_f]. apply valP_const_panic.
  - change (value_f (S n)) with (value_step (value_f n)).
    apply value_step_nest; [apply value_f_all|apply value_f_win|exact IH|].
    intros i v i' E. apply (value_f_exact n), E.
Qed.
Theorem value_nest : valP (fun v => vnest v = true) value_.
Proof. intros i v i' E. eapply value_f_nest, E. Qed.
