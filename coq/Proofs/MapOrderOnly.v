(* Proofs/MapOrderOnly.v — property C18, Coq half for `toml::map::Map`:
   the feature `preserve_order` (IndexMap instead of BTreeMap) changes the ORDER in which the
   map iterates and nothing else.  The two configurations are the models `pstep KMapOrdered`
   and `pstep KMapSorted` of Model/Containers.v (each proved equal to its reference map in
   Proofs/ContainersRefine.v, `map_refines`); they are related here directly, call by call:
   same lookups in every state, hence the same answer to every call that does not list the
   entries, and permuted answers (ascending by key in the sorted configuration) to those that do. *)
From TV Require Import Base.Prelude Spec.Ordered Model.Containers Proofs.ContainersOrder Proofs.ContainersRefine.
From Coq Require Import Permutation.
From TV Require Import Base.BytesFacts.

(* calls whose answer does not expose the iteration order; excluded: iter, iter_mut, into_iter,
   keys, values.  (retain takes a closure over (key, value) only — not positional — and answers ();
   toml::Map has no pop / first / last / index-by-position call.) *)
Definition order_free (o : mop) : bool :=
  match o with
  | MIter | MIterM | MInto | MKeys | MVals => false
  | _ => true
  end.

(* ---- lookups after insert / remove / retain ---- *)
Section Lookups.
  Context {V : Type}.
  Implicit Types (c : list (bytes * V)).

  Lemma im_get_bt_insert k v k2 c :
    im_get k2 (bt_insert k v c) = if bytes_eqb k k2 then Some v else im_get k2 c.
  Proof.
    induction c as [|[k' v'] c IH]; simpl.
    - destruct (bytes_eqb k k2); reflexivity.
    - destruct (key_compare k k') eqn:E; simpl.
      + apply key_compare_eq in E. subst. destruct (bytes_eqb k' k2); reflexivity.
      + reflexivity.
      + rewrite IH. destruct (bytes_eqb k' k2) eqn:E2; [|reflexivity].
        destruct (bytes_eqb k k2) eqn:E1; [|reflexivity].
        apply bytes_eqb_eq in E1. apply bytes_eqb_eq in E2. subst.
        rewrite key_compare_refl in E. discriminate.
  Qed.

  Lemma im_get_retain f k2 c :
    NoDup (keys c) ->
    im_get k2 (im_retain f c) = match im_get k2 c with Some v => if f k2 v then Some v else None | None => None end.
  Proof.
    induction c as [|[k' v'] c IH]; simpl; intro H; [reflexivity|].
    inversion H as [|? ? Hn Hc]; subst.
    destruct (bytes_eqb k' k2) eqn:E.
    - apply bytes_eqb_eq in E. subst. destruct (f k2 v'); simpl; [rewrite bytes_eqb_refl; reflexivity|].
      apply im_get_notin. intro Hin. apply keys_retain in Hin. tauto.
    - destruct (f k' v'); simpl; [rewrite E|]; auto.
  Qed.

  Lemma In_get k v c : NoDup (keys c) -> (In (k, v) c <-> im_get k c = Some v).
  Proof.
    induction c as [|[k' v'] c IH]; simpl; intro H; [split; [tauto|discriminate]|].
    inversion H as [|? ? Hn Hc]; subst. destruct (bytes_eqb k' k) eqn:E.
    - apply bytes_eqb_eq in E. subst. split.
      + intros [E|Hin]; [congruence|]. exfalso. apply Hn. apply in_map_iff. exists (k, v). auto.
      + intro E. injection E as ->. auto.
    - apply bytes_eqb_neq in E. rewrite <- (IH Hc). split; [intros [E2|Hin]; [congruence|exact Hin]|auto].
  Qed.

  Lemma same_lookups_perm c1 c2 :
    NoDup (keys c1) -> NoDup (keys c2) -> (forall k, im_get k c1 = im_get k c2) -> Permutation c1 c2.
  Proof.
    intros H1 H2 E. apply NoDup_Permutation.
    - eapply NoDup_map_inv. exact H1.
    - eapply NoDup_map_inv. exact H2.
    - intros [k v]. rewrite (In_get k v c1 H1), (In_get k v c2 H2), E. tauto.
  Qed.

  (* a strictly key-sorted list is determined by its content *)
  Lemma ksorted_perm_eq c1 : forall c2, ksorted c1 -> ksorted c2 -> Permutation c1 c2 -> c1 = c2.
  Proof.
    induction c1 as [|x c1 IH]; intros c2 S1 S2 P.
    - apply Permutation_nil in P. subst. reflexivity.
    - destruct c2 as [|y c2]; [apply Permutation_sym, Permutation_nil in P; discriminate|].
      destruct S1 as [F1 S1]. destruct S2 as [F2 S2].
      assert (Hxy : x = y).
      { assert (Hx : In x (y :: c2)) by (eapply Permutation_in; [exact P|left; reflexivity]).
        assert (Hy : In y (x :: c1)) by (eapply Permutation_in; [apply Permutation_sym; exact P|left; reflexivity]).
        destruct Hx as [->|Hx]; [reflexivity|]. destruct Hy as [->|Hy]; [reflexivity|].
        rewrite Forall_forall in F1, F2. specialize (F1 _ Hy). specialize (F2 _ Hx). unfold klt in *.
        rewrite (key_ltb_asym _ _ F1) in F2. discriminate. }
      subst y. f_equal. apply IH; auto. eapply Permutation_cons_inv. exact P.
  Qed.

  (* sorting duplicate-free keys by key gives a strictly sorted list *)
  Lemma sort_keys_ksorted c : NoDup (keys c) -> ksorted (om_sort_keys c).
  Proof.
    intro H. unfold om_sort_keys, om_sort_by.
    set (le := fun a b : bytes * V => key_leb (fst a) (fst b)).
    assert (Hs : sorted_by (fun a b => le a b = true) (stable_sort le c)).
    { apply stable_sort_sorted; unfold le; intros; [eapply key_leb_trans; eauto|apply key_leb_total; assumption]. }
    assert (Hn : NoDup (keys (stable_sort le c))).
    { eapply Permutation_NoDup; [|exact H]. apply Permutation_map. symmetry. apply stable_sort_perm. }
    revert Hs Hn. generalize (stable_sort le c). intro l. induction l as [|x l IH]; simpl; intros Hs Hn; [exact I|].
    destruct Hs as [Hf Hs]. inversion Hn as [|? ? Hx Hl]; subst. split; [|exact (IH Hs Hl)].
    rewrite Forall_forall in *. intros y Hy. specialize (Hf y Hy). unfold klt, le, key_ltb, key_leb in *.
    destruct (key_compare (fst x) (fst y)) eqn:E; try discriminate; [|reflexivity].
    apply key_compare_eq in E. exfalso. apply Hx. rewrite E. apply in_map. exact Hy.
  Qed.
End Lookups.

(* ---- the relation between the two configurations ---- *)
Definition Rel (co cs : imap pay) : Prop :=
  PInv KMapOrdered co /\ PInv KMapSorted cs /\ forall k, im_get k co = im_get k cs.

Lemma pkO : pkind KMapOrdered. Proof. right. reflexivity. Qed.
Lemma pkS : pkind KMapSorted. Proof. left. reflexivity. Qed.

Lemma Rel_perm co cs : Rel co cs -> Permutation co cs.
Proof.
  intros [HO [HS E]]. apply same_lookups_perm; [exact HO|apply ksorted_NoDup; exact HS|exact E].
Qed.

Lemma Rel_length co cs : Rel co cs -> length co = length cs.
Proof. intro H. apply Permutation_length. apply Rel_perm. exact H. Qed.

Lemma Rel_content co cs : Rel co cs -> om_sort_keys co = cs.
Proof.
  intros H. pose proof (Rel_perm co cs H) as P. destruct H as [HO [HS E]].
  apply ksorted_perm_eq; [apply sort_keys_ksorted; exact HO|exact HS|].
  eapply Permutation_trans; [|exact P]. apply stable_sort_perm.
Qed.

Lemma get_p_insert kd k v k2 c :
  pkind kd -> im_get k2 (p_insert kd k v c) = if bytes_eqb k k2 then Some v else im_get k2 c.
Proof. intros [->| ->]; simpl; [apply im_get_bt_insert|apply im_get_insert_g]. Qed.

Lemma Rel_insert k v co cs : Rel co cs -> Rel (p_insert KMapOrdered k v co) (p_insert KMapSorted k v cs).
Proof.
  intros [HO [HS E]]. split; [apply (p_insert_sim KMapOrdered k v co pkO HO)|].
  split; [apply (p_insert_sim KMapSorted k v cs pkS HS)|].
  intro k2. rewrite !get_p_insert by auto using pkO, pkS. rewrite E. reflexivity.
Qed.

Lemma Rel_remove k co cs : Rel co cs -> Rel (im_shift_remove k co) (im_shift_remove k cs).
Proof.
  intros [HO [HS E]]. split; [apply (p_remove_sim KMapOrdered k co pkO HO)|].
  split; [apply (p_remove_sim KMapSorted k cs pkS HS)|].
  intro k2. rewrite !im_get_remove; [rewrite E; reflexivity|apply ksorted_NoDup; exact HS|exact HO].
Qed.

Lemma Rel_retain f co cs : Rel co cs -> Rel (im_retain f co) (im_retain f cs).
Proof.
  intros [HO [HS E]]. split; [apply (p_retain_sim KMapOrdered f co pkO HO)|].
  split; [apply (p_retain_sim KMapSorted f cs pkS HS)|].
  intro k2. rewrite !im_get_retain; [rewrite E; reflexivity|apply ksorted_NoDup; exact HS|exact HO].
Qed.

Lemma Rel_extend l : forall co cs, Rel co cs -> Rel (p_extend KMapOrdered l co) (p_extend KMapSorted l cs).
Proof.
  induction l as [|[k v] l IH]; intros co cs H; [exact H|].
  simpl. apply IH. exact (Rel_insert k v co cs H).
Qed.

Lemma Rel_nil : Rel [] [].
Proof. split; [constructor|]. split; [exact I|reflexivity]. Qed.

(* ---- what the two answers to one call have in common ---- *)
Definition keys_ascending (l : list bytes) : Prop := sorted_by (fun a b => key_ltb a b = true) l.

(* same multiset of listed entries / keys / values; equal for every other kind of answer *)
Definition out_perm (a b : out) : Prop :=
  match a, b with
  | OList l1, OList l2 => Permutation l1 l2
  | OKeys l1, OKeys l2 => Permutation l1 l2
  | OVals l1, OVals l2 => Permutation l1 l2
  | _, _ => a = b
  end.
(* listed entries / keys are in ascending key order *)
Definition out_ascending (b : out) : Prop :=
  match b with
  | OList l => keys_ascending (map fst l)
  | OKeys l => keys_ascending l
  | _ => True
  end.

Definition call_rel (o : mop) (a b : out) : Prop :=
  (order_free o = true -> a = b) /\ (order_free o = false -> out_perm a b /\ out_ascending b).

Lemma ksorted_keys_ascending {V} (c : list (bytes * V)) : ksorted c -> keys_ascending (map fst c).
Proof.
  induction c as [|x c IH]; simpl; intro H; [exact I|]. destruct H as [Hf Hs]. split; [|exact (IH Hs)].
  apply Forall_forall. intros k Hk. apply in_map_iff in Hk as [y [<- Hy]].
  rewrite Forall_forall in Hf. exact (Hf y Hy).
Qed.

Local Arguments p_insert kd k p c : simpl never.
Local Arguments p_extend kd l c : simpl never.

Lemma pstep_rel co cs o :
  Rel co cs ->
  Rel (fst (pstep KMapOrdered co o)) (fst (pstep KMapSorted cs o)) /\
  call_rel o (snd (pstep KMapOrdered co o)) (snd (pstep KMapSorted cs o)).
Proof.
  intros H. pose proof H as [HO [HS E]].
  pose proof (Rel_length co cs H) as EL. pose proof (Rel_perm co cs H) as EP.
  unfold pstep, call_rel.
  change (avail KMapOrdered o) with (avail KMapSorted o).
  destruct (avail KMapSorted o); cbn [negb]; [|cbn; repeat split; auto].
  destruct o; cbn [fst snd order_free].
  all: try rewrite (E k); try rewrite EL.
  all: try (destruct (im_get k cs) as [q|]; cbn [optmap fst snd]).
  all: try (solve [split; [first [exact H | apply Rel_insert; exact H | apply Rel_remove; exact H
                                 | apply Rel_retain; exact H | apply Rel_extend; exact H
                                 | apply Rel_extend; exact Rel_nil | exact Rel_nil]
                          | split; [reflexivity | discriminate]]]).
  (* the five listing calls *)
  all: split; [exact H|]; split; [discriminate|intros _; split; cbn].
  all: try (apply Permutation_map; exact EP).
  all: try exact I.
  - rewrite map_map. cbn. apply ksorted_keys_ascending. exact HS.
  - rewrite map_map. cbn. apply ksorted_keys_ascending. exact HS.
  - apply ksorted_keys_ascending. exact HS.
  - rewrite map_map. cbn. apply ksorted_keys_ascending. exact HS.
Qed.

(* ---- all histories ---- *)
Inductive outs_rel (P : mop -> out -> out -> Prop) : list mop -> list out -> list out -> Prop :=
| outs_nil : outs_rel P [] [] []
| outs_cons o h a b la lb : P o a b -> outs_rel P h la lb -> outs_rel P (o :: h) (a :: la) (b :: lb).

Lemma outs_rel_impl (P Q : mop -> out -> out -> Prop) h la lb :
  (forall o a b, P o a b -> Q o a b) -> outs_rel P h la lb -> outs_rel Q h la lb.
Proof. intros I H. induction H; constructor; auto. Qed.

Lemma prun_rel h : forall co cs, Rel co cs ->
  Rel (fst (run (pstep KMapOrdered) co h)) (fst (run (pstep KMapSorted) cs h)) /\
  outs_rel call_rel h (snd (run (pstep KMapOrdered) co h)) (snd (run (pstep KMapSorted) cs h)).
Proof.
  induction h as [|o h IH]; intros co cs H.
  - simpl. split; [exact H|constructor].
  - destruct (pstep_rel co cs o H) as [H1 Hc]. rewrite !run_cons. cbn [fst snd].
    destruct (IH _ _ H1) as [H2 Ho]. split; [exact H2|]. constructor; assumption.
Qed.

Definition ordered_final (h : list mop) : imap pay := fst (run (pstep KMapOrdered) [] h).
Definition sorted_final (h : list mop) : imap pay := fst (run (pstep KMapSorted) [] h).

Theorem map_same_content h :
  om_sort_keys (ordered_final h) = sorted_final h /\
  (forall k, im_get k (ordered_final h) = im_get k (sorted_final h)) /\
  length (ordered_final h) = length (sorted_final h) /\
  (forall ks, let oo := pobserve ks (ordered_final h) in let os := pobserve ks (sorted_final h) in
              o_len oo = o_len os /\ o_emp oo = o_emp os /\ o_get oo = o_get os /\ o_ck oo = o_ck os).
Proof.
  destruct (prun_rel h [] [] Rel_nil) as [H _]. fold (ordered_final h) (sorted_final h) in H.
  pose proof (Rel_length _ _ H) as EL. pose proof H as [_ [_ E]].
  split; [apply Rel_content; exact H|]. split; [exact E|]. split; [exact EL|].
  intro ks. cbn. rewrite EL. repeat split.
  - apply map_ext. intro k. rewrite E. reflexivity.
  - apply map_ext. intro k. rewrite E. reflexivity.
Qed.

Theorem map_same_outputs h :
  outs_rel (fun o a b => order_free o = true -> a = b) h
           (snd (run (pstep KMapOrdered) [] h)) (snd (run (pstep KMapSorted) [] h)).
Proof.
  destruct (prun_rel h [] [] Rel_nil) as [_ H].
  eapply outs_rel_impl; [|exact H]. intros o a b [H1 _]. exact H1.
Qed.

Theorem map_iteration_permutation h :
  outs_rel (fun o a b => order_free o = false -> out_perm a b /\ out_ascending b) h
           (snd (run (pstep KMapOrdered) [] h)) (snd (run (pstep KMapSorted) [] h)).
Proof.
  destruct (prun_rel h [] [] Rel_nil) as [_ H].
  eapply outs_rel_impl; [|exact H]. intros o a b [_ H2]. exact H2.
Qed.

(* the same three facts hold of the reference maps (transport by map_refines) *)
Theorem ref_map_same_outputs h :
  outs_rel (fun o a b => order_free o = true -> a = b) h
           (snd (run (ref_step KMapOrdered) [] h)) (snd (run (ref_step KMapSorted) [] h)).
Proof.
  rewrite <- (proj1 (map_refines KMapOrdered h pkO)), <- (proj1 (map_refines KMapSorted h pkS)).
  apply map_same_outputs.
Qed.
