(* Proofs/SerdeRTErr.v — C07: an error of toml_edit's ValueSerializer names a documented unsupported
   shape present in the value (errors_documented); without such a shape serialization succeeds
   (supported_ok).  The converse is SerdeRTRefuse. *)
From TV Require Import Base.Prelude Model.SerNum Spec.SerdeData Model.Ser Proofs.SerdeRTKeys Proofs.SerdeRTFamily.

(* serialize_u64 beyond i64::MAX, and serde's default serialize_i128 / serialize_u128 *)
Lemma ser_int_value_err w z e : ser_int_value w z = Err e -> unsupported CElem (TInt w) (SInt z) e.
Proof.
  unfold ser_int_value. destruct (ser_int w z) eqn:E; [discriminate|]. intro H. injection H as <-.
  unfold ser_int, int_err in *. destruct (ser_method_of w) eqn:M.
  - discriminate.
  - unfold serialize_u64 in E. destruct (fits_i64 z) eqn:Fz; [discriminate|]. apply u_u64; assumption.
  - apply u_i128; assumption.
  - apply u_u128; assumption.
Qed.

Theorem errors_documented t v e : has_type_b t v = true -> ser_value t v = Err e -> unsupported CElem t v e.
Proof.
  intros Hty H. destruct (family_errors edit_family eq) with (t := t) (v := v) (e := e) as (e' & <- & U); auto.
  - intros w z e0 H0. exists e0. split; [reflexivity|apply ser_int_value_err, H0].
  - intros t0 a e0 Ht0 H0. exists e0. split; [reflexivity|apply ser_key_err; assumption].
Qed.

Theorem supported_ok t v : has_type v t -> supported t v -> exists x, ser_value t v = Ok x.
Proof.
  intros Hty Hs. destruct (ser_value t v) as [x|e] eqn:E; [exists x; reflexivity|].
  exfalso. apply (Hs e). apply errors_documented; assumption.
Qed.
