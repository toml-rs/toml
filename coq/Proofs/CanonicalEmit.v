(* Proofs/CanonicalEmit.v — the serializer pipeline of Model/TomlValue.v (three loops, DocumentFormatter,
   visit_nested_tables / visit_table) writes exactly the canonical document of Spec/Canonical.v:
     emit_value_doc ml m = sections_of ml true true m      emit_table_doc ml m = sections_of ml false true m
     emit_struct_doc ml m = sections_of ml false false m   (a serializer that keeps its own order)   *)
From TV Require Import Base.Prelude Model.TomlValue Spec.Canonical.
From TV Require Import Proofs.CanonicalBase.

(** * entry classes *)

Lemma is_aot_any x : is_aot x = true -> arr_any_table x = true.
Proof.
  destruct x as [t|l|m]; try discriminate. destruct l as [|y l]; [discriminate|].
  cbn [is_aot arr_any_table forallb existsb]. intro H. apply andb_true_iff in H as [H _]. rewrite H. reflexivity.
Qed.

Lemma is_aot_elem l e : is_aot (TArr l) = true -> In e l -> is_table e = true.
Proof. destruct l as [|y l]; [discriminate|]. intro H. exact (proj1 (forallb_forall _ _) H e). Qed.

Lemma is_plain_pass1 x : is_plain x = pass1 x.
Proof.
  unfold is_plain, is_line, is_mixed, pass1. destruct x as [t|l|m]; try reflexivity.
  cbn [is_table is_array negb andb orb arr_no_table].
  destruct (arr_any_table (TArr l)) eqn:E.
  - cbn [arr_any_table] in E. rewrite E. destruct (is_aot (TArr l)); reflexivity.
  - cbn [arr_any_table] in E. rewrite E.
    destruct (is_aot (TArr l)) eqn:F; [|reflexivity].
    apply is_aot_any in F. cbn [arr_any_table] in F. congruence.
Qed.

Lemma pass2_split x : pass2 x = is_mixed x || is_aot x.
Proof.
  unfold pass2, is_mixed. destruct (is_aot x) eqn:F.
  - rewrite (is_aot_any x F). reflexivity.
  - destruct (arr_any_table x); reflexivity.
Qed.

Lemma pass_cases x :
  (pass1 x = true /\ pass2 x = false /\ pass3 x = false) \/
  (pass1 x = false /\ pass2 x = true /\ pass3 x = false) \/
  (pass1 x = false /\ pass2 x = false /\ pass3 x = true).
Proof.
  destruct x as [t|l|m]; unfold pass1, pass2, pass3; cbn [is_table is_array arr_no_table arr_any_table negb andb orb].
  - auto.
  - destruct (existsb is_table l); cbn; auto.
  - auto.
Qed.

Lemma nonempty_order3 m : nonempty (order3 m) = nonempty m.
Proof.
  destruct m as [|[k x] r]; [reflexivity|]. unfold order3. cbn [filter snd].
  destruct (pass_cases x) as [(A & B & C)|[(A & B & C)|(A & B & C)]]; rewrite A, B, C.
  - reflexivity.
  - rewrite !nonempty_app. cbn [nonempty]. rewrite orb_true_r. reflexivity.
  - rewrite !nonempty_app. cbn [nonempty]. rewrite !orb_true_r. reflexivity.
Qed.

Lemma nonempty_ordn tn m : nonempty (ordn tn m) = nonempty m.
Proof. destruct tn; [apply nonempty_order3|reflexivity]. Qed.

(** * the stages, one level unfolded *)

Lemma fmt_item_inl ml em :
  fmt_item ml (EInl em) = ITbl (DT (nonempty em) (map (fun kv => (fst kv, fmt_item ml (snd kv))) em)).
Proof.
  cbn [fmt_item]. do 2 f_equal. induction em as [|[k x] r IH]; simpl; [reflexivity|]. rewrite IH. reflexivity.
Qed.

Definition tbl_of_item (it : ditem) : list dt := match it with ITbl t => [t] | _ => [] end.

Lemma fmt_item_arr ml l :
  fmt_item ml (EArr l) =
  if aot_able l then IAot (flat_map (fun x => tbl_of_item (fmt_item ml x)) l) else IVal (fmt_value ml (EArr l)).
Proof.
  cbn [fmt_item]. destruct (aot_able l); [|reflexivity]. f_equal.
  induction l as [|x r IH]; [reflexivity|]. cbn [flat_map]. rewrite <- IH.
  destruct (fmt_item ml x); reflexivity.
Qed.

Definition item_of (ml tn : bool) (kv : bytes * tv) : bytes * ditem := (fst kv, fmt_item ml (ser_g tn (snd kv))).
(* the toml_edit table a table becomes: its entries in the order `three` says, everything below by `tn` *)
Definition tblg (ml three tn : bool) (m : list (bytes * tv)) : dt :=
  DT (nonempty m) (map (item_of ml tn) (ordn three m)).

Lemma fmt_item_tab ml tn m : fmt_item ml (ser_g tn (TTab m)) = ITbl (tblg ml tn tn m).
Proof.
  rewrite ser_g_tab, fmt_item_inl. unfold tblg. rewrite nonempty_map, nonempty_ordn, map_map. reflexivity.
Qed.

Lemma fmt_root_value ml m : fmt_root ml (ser_root_value m) = tblg ml true true m.
Proof.
  unfold fmt_root. rewrite ser_root_value_eq. unfold tblg, ordn. rewrite nonempty_map, nonempty_order3, map_map. reflexivity.
Qed.

Lemma fmt_root_map ml m : fmt_root ml (ser_map m) = tblg ml false true m.
Proof. unfold fmt_root, ser_map, tblg, ordn. rewrite nonempty_map, map_map. reflexivity. Qed.

Lemma fmt_root_plain ml m : fmt_root ml (ser_root_plain m) = tblg ml false false m.
Proof.
  unfold fmt_root, ser_root_plain. rewrite ser_plain_tab. unfold tblg, ordn. rewrite nonempty_map, map_map. reflexivity.
Qed.

(* inline rendering: the spec's inline_of is the formatter applied to the serializer's tree *)
Lemma inline_of_tab ml tn m :
  inline_of ml tn (TTab m) = VInl (map (fun kv => (fst kv, inline_of ml tn (snd kv))) (ordn tn m)).
Proof.
  cbn [inline_of]. f_equal. destruct tn; unfold ordn.
  - unfold order3. rewrite !map_app.
    f_equal; [|f_equal]; induction m as [|[k x] r IH]; simpl; try reflexivity.
    + destruct (pass1 x); simpl; rewrite IH; reflexivity.
    + destruct (pass2 x); simpl; rewrite IH; reflexivity.
    + destruct (pass3 x); simpl; rewrite IH; reflexivity.
  - induction m as [|[k x] r IH]; simpl; [reflexivity|]. rewrite IH. reflexivity.
Qed.

Lemma Forall_ordn {P : bytes * tv -> Prop} tn m : Forall P m -> Forall P (ordn tn m).
Proof.
  intro H. destruct tn; [|exact H]. unfold ordn, order3. rewrite !Forall_app_iff.
  repeat split; apply Forall_filter; exact H.
Qed.

Lemma inline_of_fmt ml tn v : inline_of ml tn v = fmt_value ml (ser_g tn v).
Proof.
  induction v as [t|l IH|m IH] using tv_ind'.
  - rewrite ser_g_leaf. reflexivity.
  - rewrite ser_g_arr. cbn [inline_of fmt_value]. rewrite map_length, map_map. f_equal. apply Forall_map_ext. exact IH.
  - rewrite inline_of_tab, ser_g_tab, fmt_value_inl, map_map. f_equal.
    apply Forall_map_ext. apply Forall_ordn.
    eapply Forall_impl; [|exact IH]. intros [k x] H; unfold ser_kv_g; simpl in *; congruence.
Qed.

Lemma is_inl_ser tn x : is_inl (ser_g tn x) = is_table x.
Proof. destruct tn; destruct x as [t|l|m]; reflexivity. Qed.

Lemma aot_able_ser tn l : aot_able (map (ser_g tn) l) = is_aot (TArr l).
Proof.
  unfold aot_able. rewrite nonempty_map, forallb_map.
  assert (E : forallb (fun x => is_inl (ser_g tn x)) l = forallb is_table l).
  { induction l as [|x r IH]; simpl; [reflexivity|]. rewrite is_inl_ser, IH. reflexivity. }
  rewrite E. destruct l; reflexivity.
Qed.

(* what an entry of a table becomes *)
Lemma item_line ml tn x : is_line x = true -> fmt_item ml (ser_g tn x) = IVal (inline_of ml tn x).
Proof.
  unfold is_line. destruct x as [t|l|m]; cbn [is_table negb andb]; try discriminate; intro H.
  - rewrite ser_g_leaf. reflexivity.
  - rewrite (inline_of_fmt ml tn (TArr l)), ser_g_arr, fmt_item_arr, aot_able_ser. apply negb_true_iff in H. rewrite H.
    reflexivity.
Qed.

Definition elem_tbl (ml tn : bool) (e : tv) : dt := match e with TTab m => tblg ml tn tn m | _ => DT false [] end.

Lemma item_aot ml tn l : is_aot (TArr l) = true -> fmt_item ml (ser_g tn (TArr l)) = IAot (map (elem_tbl ml tn) l).
Proof.
  intro H. rewrite ser_g_arr, fmt_item_arr, aot_able_ser, H. f_equal.
  assert (A : forallb is_table l = true).
  { destruct l as [|y r]; [discriminate|]. exact H. }
  clear H. induction l as [|x r IH]; [reflexivity|].
  cbn [forallb] in A. apply andb_true_iff in A as [A1 A2].
  cbn [map flat_map]. rewrite (IH A2). destruct x as [t|l'|m']; try discriminate.
  rewrite fmt_item_tab. reflexivity.
Qed.

(** * visit_nested_tables and sections_at, one level unfolded *)

Definition sub_visit (p : path) (kit : bytes * ditem) : list (dt * path * bool) :=
  match snd kit with
  | ITbl t' => visit_nested t' (p ++ [fst kit]) false
  | IAot ts => flat_map (fun t' => visit_nested t' (p ++ [fst kit]) true) ts
  | IVal _ => []
  end.

Lemma visit_nested_eq i items p a :
  visit_nested (DT i items) p a = (DT i items, p, a) :: flat_map (sub_visit p) items.
Proof.
  cbn [visit_nested]. f_equal. induction items as [|[k it] r IH]; [reflexivity|].
  cbn [flat_map]. unfold sub_visit at 1. cbn [fst snd]. destruct it as [v|t'|ts].
  - exact IH.
  - rewrite IH. reflexivity.
  - rewrite IH. f_equal; try (induction ts as [|t' q IHq]; [reflexivity|]; cbn [flat_map]; rewrite IHq; reflexivity).
Qed.

Definition elem_secs (ml tn : bool) (p : path) (k : bytes) (l : list tv) : list section :=
  flat_map (fun e => sections_at ml tn tn e (p ++ [k]) KArr) l.
Definition aot_secs (ml tn : bool) (p : path) (kv : bytes * tv) : list section :=
  if is_aot (snd kv) then match snd kv with TArr l => elem_secs ml tn p (fst kv) l | _ => [] end else [].
Definition tab_secs (ml tn : bool) (p : path) (kv : bytes * tv) : list section :=
  match snd kv with TTab _ => sections_at ml tn tn (snd kv) (p ++ [fst kv]) KStd | _ => [] end.
Definition sub_secs (ml tn : bool) (p : path) (kv : bytes * tv) : list section :=
  match snd kv with
  | TTab _ => sections_at ml tn tn (snd kv) (p ++ [fst kv]) KStd
  | TArr l => if is_aot (snd kv) then elem_secs ml tn p (fst kv) l else []
  | TLeaf _ => []
  end.

Definition own_section (ml three tn : bool) (m : list (bytes * tv)) (p : path) (kind : skind) : list section :=
  if own_visible kind m (own_lines ml three tn m) then [mkSec p kind (own_lines ml three tn m)] else [].

Definition rest_secs (ml three tn : bool) (m : list (bytes * tv)) (p : path) : list section :=
  if three then flat_map (aot_secs ml tn p) m ++ flat_map (tab_secs ml tn p) m else flat_map (sub_secs ml tn p) m.

Lemma sections_at_tab ml three tn m p kind :
  sections_at ml three tn (TTab m) p kind = own_section ml three tn m p kind ++ rest_secs ml three tn m p.
Proof.
  cbn [sections_at]. unfold own_section, rest_secs. f_equal. destruct three.
  - f_equal.
    + induction m as [|[k x] r IH]; [reflexivity|]. cbn [flat_map]. rewrite <- IH. f_equal;
      try (unfold aot_secs; cbn [fst snd]; destruct (is_aot x); [|reflexivity];
           destruct x as [t|l|m']; try reflexivity; unfold elem_secs;
           induction l as [|e q IHq]; [reflexivity|]; cbn [flat_map]; rewrite <- IHq; reflexivity).
    + induction m as [|[k x] r IH]; [reflexivity|]. cbn [flat_map]. rewrite <- IH. reflexivity.
  - induction m as [|[k x] r IH]; [reflexivity|]. cbn [flat_map]. rewrite <- IH. f_equal;
    try (unfold sub_secs; cbn [fst snd]; destruct x as [t|l|m']; try reflexivity;
         destruct (is_aot (TArr l)); [|reflexivity]; unfold elem_secs;
         induction l as [|e q IHq]; [reflexivity|]; cbn [flat_map]; rewrite <- IHq; reflexivity).
Qed.

Lemma sections_at_not_tab ml three tn v p kind : is_table v = false -> sections_at ml three tn v p kind = [].
Proof. destruct v; [reflexivity|reflexivity|discriminate]. Qed.

(** * the key/value lines of a table *)

Lemma item_cases ml tn x :
  (is_line x = true /\ fmt_item ml (ser_g tn x) = IVal (inline_of ml tn x)) \/
  (exists m', x = TTab m' /\ fmt_item ml (ser_g tn x) = ITbl (tblg ml tn tn m')) \/
  (exists l, x = TArr l /\ is_aot x = true /\ fmt_item ml (ser_g tn x) = IAot (map (elem_tbl ml tn) l)).
Proof.
  destruct x as [t|l|m'].
  - left. split; [reflexivity|]. apply item_line. reflexivity.
  - destruct (is_aot (TArr l)) eqn:E.
    + right. right. exists l. repeat split. apply item_aot. exact E.
    + left. assert (L : is_line (TArr l) = true) by (unfold is_line; rewrite E; reflexivity).
      split; [exact L|]. apply item_line. exact L.
  - right. left. exists m'. split; [reflexivity|]. apply fmt_item_tab.
Qed.

Lemma get_values_items ml tn l : get_values (map (item_of ml tn) l) = lines_where ml tn is_line l.
Proof.
  unfold get_values, lines_where. induction l as [|[k x] r IH]; [reflexivity|].
  cbn [map flat_map filter fst snd]. rewrite IH. unfold item_of at 1. cbn [fst snd].
  destruct (item_cases ml tn x) as [[L E]|[(m' & -> & E)|(l' & -> & A & E)]]; rewrite E.
  - rewrite L. reflexivity.
  - reflexivity.
  - unfold is_line. rewrite A. reflexivity.
Qed.

Lemma filter_filter {A} (f g : A -> bool) l : filter f (filter g l) = filter (fun x => g x && f x) l.
Proof.
  induction l as [|x r IH]; [reflexivity|]. cbn [filter]. destruct (g x); cbn [filter andb]; rewrite IH; reflexivity.
Qed.

Lemma filter_none {A} (f : A -> bool) l : (forall x, f x = false) -> filter f l = [].
Proof. intro H. induction l as [|x r IH]; [reflexivity|]. cbn [filter]. rewrite H. exact IH. Qed.

Lemma lines_where_app ml tn p l l' : lines_where ml tn p (l ++ l') = lines_where ml tn p l ++ lines_where ml tn p l'.
Proof. unfold lines_where. rewrite filter_app, map_app. reflexivity. Qed.

Lemma line_pass1 x : pass1 x && is_line x = is_plain x.
Proof.
  rewrite is_plain_pass1. destruct (pass1 x) eqn:E; [|reflexivity]. cbn [andb].
  rewrite <- is_plain_pass1 in E. unfold is_plain in E. apply andb_true_iff in E as [E _]. exact E.
Qed.

Lemma line_pass2 x : pass2 x && is_line x = is_mixed x.
Proof.
  unfold pass2, is_mixed, is_line. destruct x as [t|l|m]; try reflexivity.
Qed.

Lemma line_pass3 x : pass3 x && is_line x = false.
Proof. unfold pass3, is_line. destruct (is_table x); reflexivity. Qed.

Lemma own_lines_ordn ml three tn m : lines_where ml tn is_line (ordn three m) = own_lines ml three tn m.
Proof.
  destruct three; [|reflexivity].
  unfold ordn, order3, own_lines. rewrite !lines_where_app. unfold lines_where. rewrite !filter_filter.
  rewrite (filter_ext _ (fun kv => is_plain (snd kv))) by (intro; apply line_pass1).
  rewrite (filter_ext (fun x => pass2 (snd x) && is_line (snd x)) (fun kv => is_mixed (snd kv))) by (intro; apply line_pass2).
  rewrite (filter_none (fun x => pass3 (snd x) && is_line (snd x)) m) by (intro; apply line_pass3).
  cbn [map]. rewrite app_nil_r. reflexivity.
Qed.

(** * the sub-sections of a table *)

Lemma kind_of_snoc p k a : kind_of (p ++ [k]) a = if a then KArr else KStd.
Proof. destruct p; reflexivity. Qed.

Lemma visit_table_own ml three tn m items p a :
  get_values items = own_lines ml three tn m ->
  visit_table (DT (nonempty m) items, p, a) = own_section ml three tn m p (kind_of p a).
Proof.
  intro H. unfold visit_table, own_section. rewrite H. destruct p as [|k p]; [reflexivity|].
  cbn [kind_of]. destruct a; reflexivity.
Qed.

(* the equation for one table, at any path *)
Definition emit_eq (ml three tn : bool) (m : list (bytes * tv)) : Prop :=
  forall p a, flat_map visit_table (visit_nested (tblg ml three tn m) p a)
              = sections_at ml three tn (TTab m) p (kind_of p a).
Definition emit_ok (ml tn : bool) (v : tv) : Prop :=
  (forall m, v = TTab m -> emit_eq ml tn tn m) /\
  (forall l, v = TArr l -> Forall (fun e => forall m, e = TTab m -> emit_eq ml tn tn m) l).

Definition item_secs (ml tn : bool) (p : path) (kv : bytes * tv) : list section :=
  flat_map visit_table (sub_visit p (item_of ml tn kv)).

Lemma items_secs ml tn p l :
  flat_map visit_table (flat_map (sub_visit p) (map (item_of ml tn) l)) = flat_map (item_secs ml tn p) l.
Proof.
  induction l as [|kv r IH]; [reflexivity|]. cbn [map flat_map]. rewrite flat_map_app, IH. reflexivity.
Qed.

Lemma item_secs_sub ml tn p kv : emit_ok ml tn (snd kv) -> item_secs ml tn p kv = sub_secs ml tn p kv.
Proof.
  destruct kv as [k x]. cbn [snd]. intros [Ht Ha]. unfold item_secs, item_of, sub_visit, sub_secs. cbn [fst snd].
  destruct (item_cases ml tn x) as [[L E]|[(m' & -> & E)|(l' & -> & A & E)]]; rewrite E.
  - cbn [flat_map]. destruct x as [t|l|m']; [reflexivity| |discriminate].
    unfold is_line in L. cbn [is_table negb andb] in L. apply negb_true_iff in L. rewrite L. reflexivity.
  - rewrite (Ht m' eq_refl). rewrite kind_of_snoc. reflexivity.
  - rewrite A. unfold elem_secs. specialize (Ha l' eq_refl).
    assert (T : forallb is_table l' = true) by (destruct l'; [discriminate|exact A]).
    clear A E Ht. induction l' as [|e q IH]; [reflexivity|].
    cbn [forallb] in T. apply andb_true_iff in T as [T1 T2]. inversion Ha as [|? ? He Hq]; subst.
    cbn [map flat_map]. rewrite flat_map_app. rewrite (IH Hq T2). f_equal.
    destruct e as [t|l|m']; try discriminate. cbn [elem_tbl].
    rewrite (He m' eq_refl). rewrite kind_of_snoc. reflexivity.
Qed.

Lemma flat_map_ext_Forall {A B} (f g : A -> list B) l : Forall (fun x => f x = g x) l -> flat_map f l = flat_map g l.
Proof. induction 1 as [|x r H _ IH]; [reflexivity|]. cbn [flat_map]. rewrite H, IH. reflexivity. Qed.

Lemma sub_secs_pass1 ml tn p m : flat_map (sub_secs ml tn p) (filter (fun kv => pass1 (snd kv)) m) = [].
Proof.
  induction m as [|[k x] r IH]; [reflexivity|]. cbn [filter snd]. destruct (pass1 x) eqn:E; [|exact IH].
  cbn [flat_map]. rewrite IH, app_nil_r. unfold sub_secs. cbn [fst snd].
  destruct x as [t|l|m']; [reflexivity| |discriminate].
  destruct (is_aot (TArr l)) eqn:A; [|reflexivity].
  apply is_aot_any in A. unfold pass1 in E. cbn in E, A. rewrite A in E. discriminate.
Qed.

Lemma sub_secs_pass2 ml tn p m :
  flat_map (sub_secs ml tn p) (filter (fun kv => pass2 (snd kv)) m) = flat_map (aot_secs ml tn p) m.
Proof.
  induction m as [|[k x] r IH]; [reflexivity|]. cbn [filter snd flat_map]. rewrite <- IH.
  unfold aot_secs at 1. cbn [fst snd].
  destruct (pass2 x) eqn:E.
  - cbn [flat_map]. f_equal. unfold sub_secs. cbn [fst snd].
    destruct x as [t|l|m']; try discriminate. destruct (is_aot (TArr l)); reflexivity.
  - destruct (is_aot x) eqn:A; [|reflexivity]. apply is_aot_any in A. unfold pass2 in E. congruence.
Qed.

Lemma sub_secs_pass3 ml tn p m :
  flat_map (sub_secs ml tn p) (filter (fun kv => pass3 (snd kv)) m) = flat_map (tab_secs ml tn p) m.
Proof.
  induction m as [|[k x] r IH]; [reflexivity|]. cbn [filter snd flat_map]. rewrite <- IH.
  unfold tab_secs at 1. cbn [fst snd]. destruct x as [t|l|m']; reflexivity.
Qed.

Lemma sub_secs_ordn ml three tn p m : flat_map (sub_secs ml tn p) (ordn three m) = rest_secs ml three tn m p.
Proof.
  unfold rest_secs. destruct three; [|reflexivity].
  unfold ordn, order3. rewrite !flat_map_app, sub_secs_pass1, sub_secs_pass2, sub_secs_pass3. reflexivity.
Qed.

(* one table, whoever ordered its entries, given the equation for the tables below it *)
Lemma emit_level ml three tn m : Forall (fun kv => emit_ok ml tn (snd kv)) m -> emit_eq ml three tn m.
Proof.
  intros IH p a. unfold tblg. rewrite visit_nested_eq. cbn [flat_map]. rewrite sections_at_tab. f_equal.
  - apply visit_table_own. rewrite get_values_items. apply own_lines_ordn.
  - rewrite items_secs. rewrite <- sub_secs_ordn. apply flat_map_ext_Forall. apply Forall_ordn.
    eapply Forall_impl; [|exact IH]. intros kv H. apply item_secs_sub. exact H.
Qed.

Lemma emit_ok_all ml tn v : emit_ok ml tn v.
Proof.
  induction v as [t|l IH|m IH] using tv_ind'.
  - split; intros ? E; discriminate.
  - split; intros ? E; [discriminate|]. injection E as <-.
    eapply Forall_impl; [|exact IH]. intros e [H _]. exact H.
  - split; intros ? E; [|discriminate]. injection E as <-. apply emit_level. exact IH.
Qed.

Lemma emit_eq_all ml three tn m : emit_eq ml three tn m.
Proof. apply emit_level. apply Forall_forall. intros kv _. apply emit_ok_all. Qed.

(** * the printers write the canonical document *)

Theorem emit_value_doc_canonical ml m : emit_value_doc ml m = sections_of ml true true m.
Proof.
  unfold emit_value_doc, emit_root, sections_of. rewrite fmt_root_value. exact (emit_eq_all ml true true m [] false).
Qed.

Theorem emit_table_doc_canonical ml m : emit_table_doc ml m = sections_of ml false true m.
Proof.
  unfold emit_table_doc, emit_root, sections_of. rewrite fmt_root_map. exact (emit_eq_all ml false true m [] false).
Qed.

Theorem emit_struct_doc_canonical ml m : emit_struct_doc ml m = sections_of ml false false m.
Proof.
  unfold emit_struct_doc, emit_root, sections_of. rewrite fmt_root_plain. exact (emit_eq_all ml false false m [] false).
Qed.
