(* Proofs/StringsRTWrite.v — facts about Model/Write.v alone:
   (1) the chunked escaping loop `write_escaped` equals the byte-at-a-time `enc`;
   (2) what the metrics pass (release arithmetic) guarantees about the string when a style
       is offered;  (3) the metrics pass is total in release arithmetic. *)
From TV Require Import Base.Prelude Base.Utf8 Base.Winnow Gen.Consts.
From TV Require Import Model.Trivia Model.Strings Model.Write Proofs.StringsRTDefs Proofs.StringsRTBase.
Require Import Lia ZifyBool ZifyN ZifyNat.

(* ---- (1) write_escaped = enc ---------------------------------------------------------------- *)
(* `res` is what a scan of `s` started at index `i` may return when `out` is the byte-at-a-time
   output: k bytes are copied, then comes the escape the scan stopped at. *)
Definition chunk_ok (is_ml : bool) (s : bytes) (i : nat) (res : nat * option bytes) (out : bytes) : Prop :=
  exists k, fst res = i + k /\
    out = firstn k s ++
      match snd res with
      | Some e => e ++ enc is_ml 0 (skipn (S k) s)
      | None => match skipn k s with [] => [] | b :: r => u_escape b ++ enc is_ml 0 r end
      end.

Lemma chunk_pass is_ml b r i res out :
  chunk_ok is_ml r (S i) res out -> chunk_ok is_ml (b :: r) i res (b :: out).
Proof. intros [k [Hk Ho]]. exists (S k). split; [lia|]. rewrite Ho. reflexivity. Qed.

Lemma chunk_stop is_ml b r i esc :
  chunk_ok is_ml (b :: r) i (i, esc) ((match esc with Some e => e | None => u_escape b end) ++ enc is_ml 0 r).
Proof. exists 0. split; [apply plus_n_O|]. destruct esc; reflexivity. Qed.

Lemma scan_enc is_ml s : forall i seq, chunk_ok is_ml s i (scan is_ml s i seq) (enc is_ml seq s).
Proof.
  induction s as [|b r IH]; intros i seq.
  - exists 0. split; [apply plus_n_O|reflexivity].
  - cbn [scan enc]. unfold short_escape.
    destruct (byte_eqb b x22) eqn:E22.
    { apply byte_eqb_eq in E22. subst b. beq_compute. cbn [andb].
      destruct (_ <? _)%N; [apply (chunk_stop _ _ _ _ (Some _))|apply chunk_pass, IH]. }
    cbn [andb].
    destruct (byte_eqb b x08); [apply (chunk_stop _ _ _ _ (Some _))|].
    destruct (byte_eqb b x09); [apply (chunk_stop _ _ _ _ (Some _))|].
    destruct (byte_eqb b x0a) eqn:E0a.
    { apply byte_eqb_eq in E0a. subst b. beq_compute.
      destruct is_ml; [apply chunk_pass, IH|apply (chunk_stop _ _ _ _ (Some _))]. }
    cbn [andb].
    destruct (byte_eqb b x0c); [apply (chunk_stop _ _ _ _ (Some _))|].
    destruct (byte_eqb b x0d); [apply (chunk_stop _ _ _ _ (Some _))|].
    destruct (byte_eqb b x5c); [apply (chunk_stop _ _ _ _ (Some _))|].
    destruct (is_ctrl b); [apply (chunk_stop _ _ _ _ None)|apply chunk_pass, IH].
Qed.

Lemma skipn_length_le {A} n (l : list A) : length (skipn n l) <= length l.
Proof. rewrite skipn_length. lia. Qed.

Lemma write_escaped_enc is_ml : forall fuel s, length s < fuel ->
  write_escaped fuel is_ml s = enc is_ml 0 s.
Proof.
  induction fuel as [|f IH]; intros s Hf; [lia|].
  destruct s as [|b0 r0]; [reflexivity|].
  set (s := b0 :: r0) in *.
  cbn [write_escaped]. unfold s at 1. fold s.
  destruct (scan_enc is_ml s 0 0%N) as [k [Hk He]].
  destruct (scan is_ml s 0 0%N) as [uend esc]. cbn [fst snd] in *. subst uend. cbn [Nat.add].
  rewrite He. destruct esc as [e|].
  - rewrite IH; [reflexivity|]. pose proof (skipn_length_le k r0). unfold s in *. cbn [skipn length] in *. lia.
  - destruct (skipn k s) as [|b r] eqn:Es; [rewrite app_nil_r; reflexivity|].
    rewrite IH; [reflexivity|]. pose proof (skipn_length_le k s) as Hl. rewrite Es in Hl. cbn [length] in *. lia.
Qed.

Lemma write_escaped_is_enc is_ml s : write_escaped (S (length s)) is_ml s = enc is_ml 0 s.
Proof. apply write_escaped_enc. lia. Qed.

(* ---- (2) the metrics pass (saturating u8 counters) ------------------------------------------- *)

Definition m_next (m : vmetrics) (b : byte) (ps' pd' : N) : vmetrics :=
  let m1 := mkVM (if byte_eqb b x27 then N.max (max_seq_single_quotes m) ps' else max_seq_single_quotes m)
                 (if byte_eqb b x22 then N.max (max_seq_double_quotes m) pd' else max_seq_double_quotes m)
                 (vm_escape_codes m) (vm_escape m) (vm_newline m) in
  if byte_eqb b x5c then mkVM (max_seq_single_quotes m1) (max_seq_double_quotes m1) (vm_escape_codes m1) true (vm_newline m1)
  else if byte_eqb b x09 then m1
  else if byte_eqb b x0a then mkVM (max_seq_single_quotes m1) (max_seq_double_quotes m1) (vm_escape_codes m1) (vm_escape m1) true
  else if is_ctrl b then mkVM (max_seq_single_quotes m1) (max_seq_double_quotes m1) true (vm_escape m1) (vm_newline m1)
  else m1.

Lemma vm_loop_cons b r ps pd m :
  vmetrics_loop (b :: r) ps pd m =
  vmetrics_loop r (qnext ps (byte_eqb b x27)) (qnext pd (byte_eqb b x22))
    (m_next m b (qnext ps (byte_eqb b x27)) (qnext pd (byte_eqb b x22))).
Proof.
  cbn [vmetrics_loop]. unfold m_next. reflexivity.
Qed.

(* a byte that forces escape codes: a control character other than tab and LF *)
Definition needs_code (b : byte) : bool :=
  is_ctrl b && negb (byte_eqb b x09) && negb (byte_eqb b x0a).

Lemma m_next_single m b ps' pd' :
  max_seq_single_quotes (m_next m b ps' pd') =
  if byte_eqb b x27 then N.max (max_seq_single_quotes m) ps' else max_seq_single_quotes m.
Proof. unfold m_next. destruct (byte_eqb b x5c), (byte_eqb b x09), (byte_eqb b x0a), (is_ctrl b); reflexivity. Qed.

Lemma m_next_codes m b ps' pd' :
  vm_escape_codes (m_next m b ps' pd') = vm_escape_codes m || needs_code b.
Proof.
  unfold m_next, needs_code.
  destruct (byte_eqb b x5c) eqn:E5c.
  { apply byte_eqb_eq in E5c. subst b. cbn. rewrite orb_false_r. reflexivity. }
  destruct (byte_eqb b x09), (byte_eqb b x0a), (is_ctrl b); cbn; rewrite ?orb_false_r, ?orb_true_r; reflexivity.
Qed.

Lemma m_next_newline m b ps' pd' :
  vm_newline (m_next m b ps' pd') = vm_newline m || byte_eqb b x0a.
Proof.
  unfold m_next.
  destruct (byte_eqb b x5c) eqn:E5c.
  { apply byte_eqb_eq in E5c. subst b. cbn. rewrite orb_false_r. reflexivity. }
  destruct (byte_eqb b x09) eqn:E09.
  { apply byte_eqb_eq in E09. subst b. cbn. rewrite orb_false_r. reflexivity. }
  destruct (byte_eqb b x0a), (is_ctrl b); cbn; rewrite ?orb_false_r, ?orb_true_r; reflexivity.
Qed.

(* no run of three `q` when `k` of them were just seen *)
Fixpoint no3 (q : byte) (k : N) (s : bytes) : bool :=
  match s with
  | [] => true
  | b :: r => if byte_eqb b q then (k <? 2)%N && no3 q (k + 1) r else no3 q 0 r
  end.

(* Each boolean field of the metrics is sticky: once it has left the value `v` it never comes back.  So
   if it still has `v` at the end, it had it at the start and every byte passed the test `ok`. *)
Section StickyV.
  Variables (f : vmetrics -> bool) (v : bool) (ok : byte -> bool).
  Hypothesis f_next : forall m b ps' pd', f (m_next m b ps' pd') = v -> f m = v /\ ok b = true.

  Lemma vm_sticky : forall s ps pd m, f (vmetrics_loop s ps pd m) = v -> f m = v /\ forallb ok s = true.
  Proof.
    induction s as [|b r IH]; intros ps pd m H; [auto|].
    rewrite vm_loop_cons in H. apply IH in H as [H Hr]. apply f_next in H as [Hm Hb].
    cbn [forallb]. rewrite Hb, Hr. auto.
  Qed.
End StickyV.

Lemma vm_codes_inv s ps pd m : vm_escape_codes (vmetrics_loop s ps pd m) = false ->
  vm_escape_codes m = false /\ forallb (fun b => negb (needs_code b)) s = true.
Proof.
  apply vm_sticky. intros m0 b ps' pd' H. rewrite m_next_codes in H.
  apply orb_false_iff in H as [H Hb]. rewrite Hb. auto.
Qed.

Lemma vm_newline_inv s ps pd m : vm_newline (vmetrics_loop s ps pd m) = false ->
  vm_newline m = false /\ forallb (fun b => negb (byte_eqb b x0a)) s = true.
Proof.
  apply vm_sticky. intros m0 b ps' pd' H. rewrite m_next_newline in H.
  apply orb_false_iff in H as [H Hb]. rewrite Hb. auto.
Qed.

(* The apostrophe maximum only grows, and an apostrophe lifts it to the length of the run it extends;
   the run counter itself needs no invariant. *)
Lemma qnext_hit_pos ps : (1 <= qnext ps true)%N.
Proof. unfold qnext. destruct (ps =? 255)%N; lia. Qed.

Lemma qnext_hit_small ps : (ps <= 2)%N -> qnext ps true = (ps + 1)%N.
Proof. intro H. unfold qnext. destruct (ps =? 255)%N eqn:E; [lia|reflexivity]. Qed.

Lemma vm_single_mono : forall s ps pd m,
  (max_seq_single_quotes m <= max_seq_single_quotes (vmetrics_loop s ps pd m))%N.
Proof.
  induction s as [|b r IH]; intros ps pd m; [cbn; lia|].
  rewrite vm_loop_cons. etransitivity; [|apply IH].
  rewrite m_next_single. destruct (byte_eqb b x27); lia.
Qed.

Lemma vm_single_hit b r ps pd m : byte_eqb b x27 = true ->
  (qnext ps true <= max_seq_single_quotes (vmetrics_loop (b :: r) ps pd m))%N.
Proof.
  intro E. rewrite vm_loop_cons. etransitivity; [|apply vm_single_mono].
  rewrite m_next_single, E. lia.
Qed.

Lemma vm_no_apos : forall s ps pd m, max_seq_single_quotes (vmetrics_loop s ps pd m) = 0%N ->
  forallb (fun b => negb (byte_eqb b x27)) s = true.
Proof.
  induction s as [|b r IH]; intros ps pd m H; [reflexivity|].
  cbn [forallb]. destruct (byte_eqb b x27) eqn:E.
  - pose proof (vm_single_hit b r ps pd m E). pose proof (qnext_hit_pos ps). lia.
  - rewrite vm_loop_cons in H. apply IH in H. exact H.
Qed.

Lemma vm_no3 : forall s ps pd m, (max_seq_single_quotes (vmetrics_loop s ps pd m) <= 2)%N ->
  (ps <= 2)%N -> no3 x27 ps s = true.
Proof.
  induction s as [|b r IH]; intros ps pd m H Hps; [reflexivity|].
  cbn [no3]. destruct (byte_eqb b x27) eqn:E.
  - pose proof (vm_single_hit b r ps pd m E) as Hhit. rewrite qnext_hit_small in Hhit by exact Hps.
    assert (Hlt : (ps <? 2)%N = true) by lia. rewrite Hlt.
    rewrite vm_loop_cons, E, qnext_hit_small in H by exact Hps. apply (IH _ _ _ H). lia.
  - rewrite vm_loop_cons, E in H. apply (IH _ _ _ H). cbn. lia.
Qed.

(* what `vmetrics_of true s = WOk m` tells about s *)
Lemma vm_of_codes s m : vmetrics_of s = m -> vm_escape_codes m = false ->
  forallb (fun b => negb (needs_code b)) s = true.
Proof. intros <- E. apply vm_codes_inv in E. apply E. Qed.
Lemma vm_of_newline s m : vmetrics_of s = m -> vm_newline m = false ->
  forallb (fun b => negb (byte_eqb b x0a)) s = true.
Proof. intros <- E. apply vm_newline_inv in E. apply E. Qed.
Lemma vm_of_no_apos s m : vmetrics_of s = m -> (0 <? max_seq_single_quotes m)%N = false ->
  forallb (fun b => negb (byte_eqb b x27)) s = true.
Proof. intros <- E. apply (vm_no_apos s 0%N 0%N (mkVM 0 0 false false false)). fold (vmetrics_of s). lia. Qed.
Lemma vm_of_no3 s m : vmetrics_of s = m -> (2 <? max_seq_single_quotes m)%N = false ->
  no3 x27 0 s = true.
Proof. intros <- E. apply (vm_no3 s 0%N 0%N (mkVM 0 0 false false false)); [fold (vmetrics_of s)|]; lia. Qed.

(* ---- (3) keys -------------------------------------------------------------------------------- *)
Definition k_next (m : kmetrics) (b : byte) : kmetrics :=
  let m1 := if is_unquoted_byte b then m else mkKM false (km_single m) (km_double m) (km_escape_codes m) (km_escape m) in
  if byte_eqb b x27 then mkKM (km_unquoted m1) true (km_double m1) (km_escape_codes m1) (km_escape m1)
  else if byte_eqb b x22 then mkKM (km_unquoted m1) (km_single m1) true (km_escape_codes m1) (km_escape m1)
  else if byte_eqb b x5c then mkKM (km_unquoted m1) (km_single m1) (km_double m1) (km_escape_codes m1) true
  else if byte_eqb b x09 then m1
  else if is_ctrl b then mkKM (km_unquoted m1) (km_single m1) (km_double m1) true (km_escape m1)
  else m1.

Lemma k_next_unquoted m b : km_unquoted (k_next m b) = km_unquoted m && is_unquoted_byte b.
Proof.
  unfold k_next. destruct (is_unquoted_byte b);
    destruct (byte_eqb b x27), (byte_eqb b x22), (byte_eqb b x5c), (byte_eqb b x09), (is_ctrl b);
    cbn; rewrite ?andb_true_r, ?andb_false_r; reflexivity.
Qed.
Lemma k_next_single m b : km_single (k_next m b) = km_single m || byte_eqb b x27.
Proof.
  unfold k_next. destruct (byte_eqb b x27) eqn:E.
  { destruct (is_unquoted_byte b); cbn; rewrite orb_true_r; reflexivity. }
  destruct (is_unquoted_byte b);
    destruct (byte_eqb b x22), (byte_eqb b x5c), (byte_eqb b x09), (is_ctrl b);
    cbn; rewrite ?orb_false_r; reflexivity.
Qed.
(* a key byte that forces escape codes: a control character other than tab *)
Definition key_needs_code (b : byte) : bool := is_ctrl b && negb (byte_eqb b x09).
Lemma k_next_codes m b : km_escape_codes (k_next m b) = km_escape_codes m || key_needs_code b.
Proof.
  unfold k_next, key_needs_code.
  destruct (byte_eqb b x27) eqn:E27.
  { apply byte_eqb_eq in E27. subst b. cbn. rewrite orb_false_r. reflexivity. }
  destruct (byte_eqb b x22) eqn:E22.
  { apply byte_eqb_eq in E22. subst b. cbn. rewrite orb_false_r. reflexivity. }
  destruct (byte_eqb b x5c) eqn:E5c.
  { apply byte_eqb_eq in E5c. subst b. cbn. rewrite orb_false_r. reflexivity. }
  destruct (is_unquoted_byte b); destruct (byte_eqb b x09), (is_ctrl b);
    cbn; rewrite ?orb_false_r, ?orb_true_r; reflexivity.
Qed.

Section StickyK.
  Variables (f : kmetrics -> bool) (v : bool) (ok : byte -> bool).
  Hypothesis f_next : forall m b, f (k_next m b) = v -> f m = v /\ ok b = true.

  Lemma km_sticky : forall s m, f (kmetrics_loop s m) = v -> f m = v /\ forallb ok s = true.
  Proof.
    induction s as [|b r IH]; intros m H; [auto|].
    change (kmetrics_loop (b :: r) m) with (kmetrics_loop r (k_next m b)) in H.
    apply IH in H as [H Hr]. apply f_next in H as [Hm Hb]. cbn [forallb]. rewrite Hb, Hr. auto.
  Qed.
End StickyK.

Lemma km_unquoted_inv s m : km_unquoted (kmetrics_loop s m) = true ->
  km_unquoted m = true /\ forallb is_unquoted_byte s = true.
Proof.
  apply km_sticky. intros m0 b H. rewrite k_next_unquoted in H. apply andb_true_iff in H. exact H.
Qed.

Lemma km_single_inv s m : km_single (kmetrics_loop s m) = false ->
  km_single m = false /\ forallb (fun b => negb (byte_eqb b x27)) s = true.
Proof.
  apply km_sticky. intros m0 b H. rewrite k_next_single in H.
  apply orb_false_iff in H as [H Hb]. rewrite Hb. auto.
Qed.

Lemma km_codes_inv s m : km_escape_codes (kmetrics_loop s m) = false ->
  km_escape_codes m = false /\ forallb (fun b => negb (key_needs_code b)) s = true.
Proof.
  apply km_sticky. intros m0 b H. rewrite k_next_codes in H.
  apply orb_false_iff in H as [H Hb]. rewrite Hb. auto.
Qed.
