(* Proofs/WFReplay.v — WF backbone for ANY order of the sections.
   Display sorts the sections by position; whatever the order, the printed text has a derivation whose statements are
   `replay_stmts root`: the own statements (header, then key/value lines) of the sections in Display's order — a
   function of the tree, computed without printing.  So, for a tree satisfying all clauses of WF but `order_ok`:
   if these statements are valid under the definition rules of Spec/Defs.v, the printed text is accepted and decodes
   to the tree they define (`WF_print_parse_replay`).  For parsed documents this gives a certified check with no
   other premise (`reparse_replay`): it covers documents whose sections are not in the order of the tree walk.
   (The order-free SEMANTIC theorem — that these statements define the tree itself — is proved for the walk order
   only, Proofs/WFSemDoc.v body_defines.) *)
From TV Require Import Base.Prelude Gen.Consts Spec.Defs Spec.Syntax Spec.WF.
From TV Require Import Model.Tree Model.Document Model.Encode.
From TV Require Import Proofs.GrammarBase Proofs.PrintBackBase.
From TV Require Import Proofs.WFSemDoc
                       Proofs.WFTree Proofs.WFPrintDoc Proofs.WFPrintTop Proofs.WFReparse Proofs.WFParseTop.
Require Import Lia NArith.

Local Notation section := (tbl * list key * bool)%type.

Definition own_abs (x : section) : list (stmt dval) :=
  own_hdr (fst (fst x)) (snd (fst x)) (snd x) ++ line_stmts dval (sb_tbl (fst (fst x))).

(* sorting keeps the elements *)
Lemma insert_sorted_in {A} (x y : N * A) l : In y (insert_sorted x l) -> y = x \/ In y l.
Proof.
  induction l as [|z l IH]; cbn [insert_sorted]; [intros [H|[]]; auto|]. destruct (fst x <? fst z)%N.
  - intros [H|H]; auto.
  - intros [H|H]; [right; left; exact H|]. destruct (IH H); [auto|right; right; assumption].
Qed.
Lemma stable_sort_in {A} (y : N * A) l : In y (stable_sort l) -> In y l.
Proof.
  unfold stable_sort. assert (G : forall l acc, In y (fold_left (fun a x => insert_sorted x a) l acc) -> In y acc \/ In y l).
  { clear l. induction l as [|x l IH]; intros acc H; [left; exact H|]. cbn [fold_left] in H. destruct (IH _ H) as [H1|H1]; [|right; right; exact H1].
    destruct (insert_sorted_in x y acc H1) as [->|H2]; [right; left; reflexivity|left; exact H2]. }
  intro H. destruct (G l [] H) as [[]|H1]. exact H1.
Qed.
Lemma assign_positions_in : forall (l : list section) n x, In x (assign_positions n l) -> In (snd x) l.
Proof.
  induction l as [|[[t p] a] l IH]; intros n x H; [contradiction|]. cbn [assign_positions] in H. destruct H as [<-|H]; [left; reflexivity|right; exact (IH _ _ H)].
Qed.

(* the sections in Display's order, and their statements *)
Definition display_order (root : tbl) : list section := map snd (stable_sort (assign_positions 0 (sections root [] false))).
Definition replay_stmts (root : tbl) : list (stmt dval) := flat_map own_abs (display_order root).

Lemma display_order_ok root : WF_slots root -> Forall sec_ok (display_order root).
Proof.
  intros (Hd & Hw & Hl). pose proof (root_sections_ok root Hd Hw Hl) as F.
  unfold display_order. apply Forall_forall. intros x Hin. apply in_map_iff in Hin as (y & <- & Hy). apply stable_sort_in in Hy.
  apply assign_positions_in in Hy. rewrite Forall_forall in F. exact (F _ Hy).
Qed.

Lemma display_any_order root trailing :
  display_document root trailing
  = decor_prefix (t_decor root) (fst DEFAULT_ROOT_DECOR) ++ vts (display_order root) true
    ++ decor_suffix (t_decor root) (snd DEFAULT_ROOT_DECOR) ++ raw_encode trailing [].
Proof. unfold display_document, display_order. rewrite doc_sections_eq, visit_tables_vts. reflexivity. Qed.

(* ---- the derivation, whatever the order ------------------------------------------------------------------------------- *)
Theorem WF_print_derivation_replay root trailing :
  WF_slots root -> raw_ok SDocTrail trailing ->
  exists stmts, toml_text (display_document root trailing) stmts
                /\ map stmt_den stmts = replay_stmts root
                /\ forallb stmt_ok stmts = true /\ within_limits stmts = true.
Proof.
  intros Hs Htr. rewrite display_any_order.
  exact (doc_derivation root trailing _ _ (proj1 (proj2 Hs)) Htr (derives_list _ (display_order_ok root Hs))).
Qed.

Theorem WF_print_parse_replay root trailing T :
  WF_slots root -> raw_ok SDocTrail trailing -> spec_run (replay_stmts root) = Valid T ->
  exists d, parse_document (display_document root trailing) = POk d /\ abs_doc d = T.
Proof.
  intros Hs Htr Hrun. destruct (WF_print_derivation_replay root trailing Hs Htr) as (stmts & Ht & E & O & W).
  apply (derivation_parse _ stmts T Ht); [unfold verdict; rewrite O, E; exact Hrun|exact W].
Qed.

(* ---- parsed documents: a certified check without any premise on the order ------------------------------------------- *)
Definition replay_check (s : bytes) (d : doc) : bool :=
  match tbl_despan s (doc_root d) with
  | Some r => match spec_run (replay_stmts r) with Valid T => stree_eqb T (abs_doc d) | _ => false end
  | None => false
  end.

Theorem reparse_replay s d o :
  parse_document s = POk d -> print_doc s d = Some o -> replay_check s d = true ->
  exists d', parse_document o = POk d' /\ abs_doc d' = abs_doc d.
Proof.
  intros Hp Ho Hc. unfold print_doc in Ho. unfold replay_check in Hc.
  destruct (tbl_despan s (doc_root d)) as [r|] eqn:Er; [|discriminate]. destruct (raw_despan s (doc_trailing d)) as [t|] eqn:Et; [|discriminate].
  injection Ho as <-. destruct (spec_run (replay_stmts r)) as [T| |] eqn:Erun; try discriminate. apply stree_eqb_eq in Hc. subst T.
  destruct (parse_WF s d r t Hp Er Et) as [Hs Htr]. exact (WF_print_parse_replay r t _ Hs Htr Erun).
Qed.
