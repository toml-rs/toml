(* Proofs/ContainersRefine.v — forward simulation between the container model
   (Model/Containers.v) and the reference containers (Spec/Ordered.v), property C16.

   abs drops the placeholder entries (`Item::None`).  Every write / entry call first drops the
   placeholder stored under its key (`purge`, Model/Containers.v `prep`: the repair of
   C16-placeholder-residue), which changes neither abs nor the invariant; on the purged state
   the call meets no placeholder (`tsens' = false`), the model's answer equals the reference's
   answer and abs commutes with the step (`tbody_sim`); lifted to ALL histories by induction
   over the list of calls. *)
From TV Require Import Base.Prelude Spec.Ordered Model.Containers Proofs.ContainersOrder.
Require Import Lia ZifyBool ZifyN ZifyNat.
From Coq Require Import Permutation.
From TV Require Import Base.BytesFacts.

(** * C. association lists: model functions versus reference functions *)

Notation keys c := (map fst c).

Section Assoc.
  Context {V : Type}.
  Implicit Types (c m : list (bytes * V)).

  Lemma im_get_In k c v : im_get k c = Some v -> In k (keys c).
  Proof.
    induction c as [|[k' v'] c IH]; simpl; [discriminate|].
    destruct (bytes_eqb k' k) eqn:E; [apply bytes_eqb_eq in E; auto|auto].
  Qed.

  Lemma im_get_notin k c : ~ In k (keys c) -> im_get k c = None.
  Proof.
    induction c as [|[k' v'] c IH]; simpl; [reflexivity|]. intro H.
    destruct (bytes_eqb k' k) eqn:E; [apply bytes_eqb_eq in E; tauto|apply IH; tauto].
  Qed.

  Lemma im_get_None_notin k c : im_get k c = None -> ~ In k (keys c).
  Proof.
    induction c as [|[k' v'] c IH]; simpl; [tauto|].
    destruct (bytes_eqb k' k) eqn:E; [discriminate|]. apply bytes_eqb_neq in E. intros H [H1|H1]; [congruence|].
    apply IH; assumption.
  Qed.

  Lemma om_get_eq k m : om_get k m = im_get k m.
  Proof.
    unfold om_get. induction m as [|[k' v'] m IH]; simpl; [reflexivity|].
    unfold has_key at 1; simpl. destruct (bytes_eqb k' k); [reflexivity|exact IH].
  Qed.

  Lemma om_mem_eq k m : om_mem k m = is_some (im_get k m).
  Proof.
    unfold om_mem. induction m as [|[k' v'] m IH]; simpl; [reflexivity|].
    unfold has_key at 1; simpl. destruct (bytes_eqb k' k); [reflexivity|exact IH].
  Qed.

  Lemma om_remove_notin k m : ~ In k (keys m) -> om_remove k m = m.
  Proof.
    unfold om_remove. induction m as [|[k' v'] m IH]; simpl; [reflexivity|]. intro H.
    unfold has_key at 1; simpl. destruct (bytes_eqb k' k) eqn:E; [apply bytes_eqb_eq in E; tauto|].
    simpl. f_equal. apply IH. tauto.
  Qed.

  Lemma om_remove_cons k k' v' m :
    om_remove k ((k', v') :: m) = if bytes_eqb k' k then om_remove k m else (k', v') :: om_remove k m.
  Proof. unfold om_remove; simpl. unfold has_key at 1; simpl. destruct (bytes_eqb k' k); reflexivity. Qed.

  Lemma map_replace_notin k v m :
    ~ In k (keys m) -> map (fun kv : bytes * V => if has_key k kv then (fst kv, v) else kv) m = m.
  Proof.
    induction m as [|[k' v'] m IH]; simpl; [reflexivity|]. intro H.
    unfold has_key at 1; simpl. destruct (bytes_eqb k' k) eqn:E; [apply bytes_eqb_eq in E; tauto|].
    f_equal. apply IH. tauto.
  Qed.

  Lemma om_insert_cons_ne k v k' v' m :
    bytes_eqb k' k = false -> om_insert k v ((k', v') :: m) = (k', v') :: om_insert k v m.
  Proof.
    intro E. assert (Hk : has_key k (k', v') = false) by exact E.
    unfold om_insert, om_mem. cbn [existsb map]. rewrite Hk. cbn [orb].
    destruct (existsb (has_key k) m); reflexivity.
  Qed.

  Lemma om_insert_cons_eq k v k' v' m :
    bytes_eqb k' k = true -> ~ In k (keys m) -> om_insert k v ((k', v') :: m) = (k', v) :: m.
  Proof.
    intros E H. assert (Hk : has_key k (k', v') = true) by exact E.
    unfold om_insert, om_mem. cbn [existsb map]. rewrite Hk. cbn [orb fst].
    rewrite map_replace_notin by assumption. reflexivity.
  Qed.

  Lemma om_insert_nil k v : om_insert k v ([] : list (bytes * V)) = [(k, v)].
  Proof. reflexivity. Qed.

  (* IndexMap::insert = reference insert on duplicate-free lists *)
  Lemma im_insert_eq k v c : NoDup (keys c) -> im_insert k v c = om_insert k v c.
  Proof.
    induction c as [|[k' v'] c IH]; simpl; intro H; [reflexivity|].
    inversion H as [|? ? Hn Hc]; subst.
    destruct (bytes_eqb k' k) eqn:E.
    - rewrite om_insert_cons_eq; auto. apply bytes_eqb_eq in E. subst. exact Hn.
    - rewrite om_insert_cons_ne by assumption. f_equal. auto.
  Qed.

  Lemma im_shift_remove_eq k c : NoDup (keys c) -> im_shift_remove k c = om_remove k c.
  Proof.
    induction c as [|[k' v'] c IH]; intro H; [reflexivity|]. cbn [im_shift_remove].
    inversion H as [|? ? Hn Hc]; subst. rewrite om_remove_cons.
    destruct (bytes_eqb k' k) eqn:E.
    - apply bytes_eqb_eq in E. subst. symmetry. apply om_remove_notin. exact Hn.
    - f_equal. auto.
  Qed.

  Lemma im_retain_eq f c : im_retain f c = om_retain f c.
  Proof.
    unfold om_retain. induction c as [|[k' v'] c IH]; simpl; [reflexivity|].
    destruct (f k' v'); rewrite IH; reflexivity.
  Qed.

  Lemma im_insert_same k v c : im_get k c = Some v -> im_insert k v c = c.
  Proof.
    induction c as [|[k' v'] c IH]; simpl; [discriminate|].
    destruct (bytes_eqb k' k); [intro H; injection H as ->; reflexivity|].
    intro H. f_equal. auto.
  Qed.

  (* lookups after insert / remove *)
  Lemma im_get_insert_g k v k2 c :
    im_get k2 (im_insert k v c) = if bytes_eqb k k2 then Some v else im_get k2 c.
  Proof.
    induction c as [|[k' v'] c IH]; simpl.
    - destruct (bytes_eqb k k2); reflexivity.
    - destruct (bytes_eqb k' k) eqn:E1; simpl.
      + apply bytes_eqb_eq in E1. subst. destruct (bytes_eqb k k2); reflexivity.
      + destruct (bytes_eqb k' k2) eqn:E2; [|exact IH].
        apply bytes_eqb_eq in E2. subst. rewrite bytes_eqb_sym, E1. reflexivity.
  Qed.

  Lemma im_get_remove k k2 c :
    NoDup (keys c) -> im_get k2 (im_shift_remove k c) = if bytes_eqb k k2 then None else im_get k2 c.
  Proof.
    induction c as [|[k' v'] c IH]; simpl; intro H.
    - destruct (bytes_eqb k k2); reflexivity.
    - inversion H as [|? ? Hn Hc]; subst. destruct (bytes_eqb k' k) eqn:E1.
      + apply bytes_eqb_eq in E1. subst. destruct (bytes_eqb k k2) eqn:E2; [|reflexivity].
        apply bytes_eqb_eq in E2. subst. apply im_get_notin. exact Hn.
      + simpl. destruct (bytes_eqb k' k2) eqn:E2; [|auto].
        apply bytes_eqb_eq in E2. subst. rewrite bytes_eqb_sym, E1. reflexivity.
  Qed.

  (* keys, NoDup and value invariants *)
  Lemma keys_insert x k v c : In x (keys (im_insert k v c)) -> x = k \/ In x (keys c).
  Proof.
    induction c as [|[k' v'] c IH]; simpl; [intuition congruence|].
    destruct (bytes_eqb k' k) eqn:E; simpl; [tauto|]. intros [H|H]; [tauto|]. apply IH in H. tauto.
  Qed.

  Lemma NoDup_insert k v c : NoDup (keys c) -> NoDup (keys (im_insert k v c)).
  Proof.
    induction c as [|[k' v'] c IH]; simpl; intro H; [repeat constructor; simpl; tauto|].
    inversion H as [|? ? Hn Hc]; subst.
    destruct (bytes_eqb k' k) eqn:E; simpl; [constructor; assumption|].
    constructor; [|auto]. intro Hin. apply keys_insert in Hin. apply bytes_eqb_neq in E.
    destruct Hin; [congruence|tauto].
  Qed.

  Lemma keys_remove x k c : In x (keys (im_shift_remove k c)) -> In x (keys c).
  Proof.
    induction c as [|[k' v'] c IH]; simpl; [tauto|].
    destruct (bytes_eqb k' k); simpl; [tauto|]. intros [H|H]; [tauto|]. auto.
  Qed.

  Lemma NoDup_remove k c : NoDup (keys c) -> NoDup (keys (im_shift_remove k c)).
  Proof.
    induction c as [|[k' v'] c IH]; simpl; intro H; [constructor|].
    inversion H as [|? ? Hn Hc]; subst.
    destruct (bytes_eqb k' k); simpl; [assumption|].
    constructor; [|auto]. intro Hin. apply keys_remove in Hin. tauto.
  Qed.

  Lemma keys_retain x f c : In x (keys (im_retain f c)) -> In x (keys c).
  Proof.
    induction c as [|[k' v'] c IH]; simpl; [tauto|].
    destruct (f k' v'); simpl; [|auto]. intros [H|H]; auto.
  Qed.

  Lemma NoDup_retain f c : NoDup (keys c) -> NoDup (keys (im_retain f c)).
  Proof.
    induction c as [|[k' v'] c IH]; simpl; intro H; [constructor|].
    inversion H as [|? ? Hn Hc]; subst.
    destruct (f k' v'); simpl; [|auto].
    constructor; [|auto]. intro Hin. apply keys_retain in Hin. tauto.
  Qed.

  Lemma NoDup_sort le c : NoDup (keys c) -> NoDup (keys (im_sort_by le c)).
  Proof.
    intro H. rewrite im_sort_by_eq.
    eapply Permutation_NoDup; [|exact H]. apply Permutation_map. symmetry. apply stable_sort_perm.
  Qed.

  Lemma NoDup_extend l c : NoDup (keys c) -> NoDup (keys (im_extend l c)).
  Proof.
    revert c. induction l as [|[k v] l IH]; simpl; intros c H; [assumption|].
    apply IH. apply NoDup_insert. assumption.
  Qed.

  Section ValInv.
    Variable P : V -> Prop.
    Let PE := fun kv : bytes * V => P (snd kv).

    Lemma Forall_get k c v : Forall PE c -> im_get k c = Some v -> P v.
    Proof.
      induction c as [|[k' v'] c IH]; simpl; [discriminate|]. intro H. inversion H; subst.
      destruct (bytes_eqb k' k); [intro E; injection E as <-; assumption|auto].
    Qed.
    Lemma Forall_insert k v c : Forall PE c -> P v -> Forall PE (im_insert k v c).
    Proof.
      intros H Hv. induction c as [|[k' v'] c IH]; simpl; [repeat constructor; exact Hv|].
      inversion H; subst. destruct (bytes_eqb k' k); constructor; auto.
    Qed.
    Lemma Forall_remove k c : Forall PE c -> Forall PE (im_shift_remove k c).
    Proof.
      induction c as [|[k' v'] c IH]; simpl; intro H; [constructor|].
      inversion H; subst. destruct (bytes_eqb k' k); [assumption|constructor; auto].
    Qed.
    Lemma Forall_retain f c : Forall PE c -> Forall PE (im_retain f c).
    Proof.
      induction c as [|[k' v'] c IH]; simpl; intro H; [constructor|].
      inversion H; subst. destruct (f k' v'); [constructor|]; auto.
    Qed.
    Lemma Forall_sort le c : Forall PE c -> Forall PE (im_sort_by le c).
    Proof. intro H. rewrite im_sort_by_eq. apply stable_sort_Forall. exact H. Qed.
    Lemma Forall_extend l c : Forall PE c -> Forall PE l -> Forall PE (im_extend l c).
    Proof.
      revert c. induction l as [|[k v] l IH]; simpl; intros c H Hl; [assumption|].
      inversion Hl; subst. apply IH; [apply Forall_insert|]; assumption.
    Qed.
  End ValInv.
End Assoc.

(** * D. the abstraction function and its commutation lemmas *)

Definition keep (kv : bytes * item) : option (bytes * pay) :=
  match snd kv with IReal p => Some (fst kv, p) | INone => None end.
Fixpoint abs (c : imap item) : omap pay :=
  match c with
  | [] => []
  | (k, IReal p) :: c' => (k, p) :: abs c'
  | (_, INone) :: c' => abs c'
  end.
Lemma abs_pmap c : abs c = pmap keep c.
Proof. induction c as [|[k [|p]] c IH]; simpl; [reflexivity|exact IH|]. unfold keep at 1; simpl. f_equal. exact IH. Qed.

Lemma abs_cons_real k p c : abs ((k, IReal p) :: c) = (k, p) :: abs c.
Proof. reflexivity. Qed.
Lemma abs_cons_none k c : abs ((k, INone) :: c) = abs c.
Proof. reflexivity. Qed.

Lemma abs_keys x c : In x (keys (abs c)) -> In x (keys c).
Proof.
  induction c as [|[k [|p]] c IH]; simpl; [tauto| |].
  - rewrite ?abs_cons_none. auto.
  - rewrite ?abs_cons_real. simpl. intros [H|H]; auto.
Qed.

Lemma abs_NoDup c : NoDup (keys c) -> NoDup (keys (abs c)).
Proof.
  induction c as [|[k [|p]] c IH]; simpl; intro H; [constructor| |]; inversion H; subst.
  - rewrite ?abs_cons_none. auto.
  - rewrite ?abs_cons_real. simpl. constructor; [|auto]. intro Hin. apply abs_keys in Hin. tauto.
Qed.

Lemma abs_get k c :
  NoDup (keys c) ->
  im_get k (abs c) = match im_get k c with Some (IReal p) => Some p | _ => None end.
Proof.
  induction c as [|[k' [|p]] c IH]; simpl; intro H; [reflexivity| |]; inversion H as [|? ? Hn Hc]; subst.
  - rewrite ?abs_cons_none. destruct (bytes_eqb k' k) eqn:E; [|auto].
    apply bytes_eqb_eq in E. subst. apply im_get_notin. intro Hin. apply abs_keys in Hin. tauto.
  - rewrite ?abs_cons_real. simpl. destruct (bytes_eqb k' k); [reflexivity|auto].
Qed.

Lemma ph_false_get k c : ph k c = false -> im_get k c <> Some INone.
Proof. unfold ph. destruct (im_get k c) as [[|p]|]; congruence. Qed.

Lemma abs_insert_real k p c :
  NoDup (keys c) -> ph k c = false -> abs (im_insert k (IReal p) c) = om_insert k p (abs c).
Proof.
  unfold ph. induction c as [|[k' i] c IH]; simpl; intros H Hp; [reflexivity|].
  inversion H as [|? ? Hn Hc]; subst.
  destruct (bytes_eqb k' k) eqn:E.
  - destruct i as [|q]; [discriminate|]. rewrite ?abs_cons_real.
    rewrite om_insert_cons_eq; auto. apply bytes_eqb_eq in E. subst. intro Hin. apply abs_keys in Hin. tauto.
  - destruct i as [|q].
    + rewrite ?abs_cons_none. auto.
    + rewrite ?abs_cons_real. rewrite om_insert_cons_ne by assumption. f_equal. auto.
Qed.

Lemma abs_insert_none k c : im_get k c = None -> abs (im_insert k INone c) = abs c.
Proof.
  induction c as [|[k' i] c IH]; simpl; intro H; [reflexivity|].
  destruct (bytes_eqb k' k); [discriminate|].
  destruct i as [|q]; [rewrite ?abs_cons_none|rewrite ?abs_cons_real; f_equal]; auto.
Qed.

Lemma abs_remove k c : NoDup (keys c) -> abs (im_shift_remove k c) = om_remove k (abs c).
Proof.
  induction c as [|[k' i] c IH]; simpl; intro H; [reflexivity|].
  inversion H as [|? ? Hn Hc]; subst.
  destruct (bytes_eqb k' k) eqn:E.
  - apply bytes_eqb_eq in E. subst.
    assert (Hk : ~ In k (keys (abs c))) by (intro Hin; apply abs_keys in Hin; tauto).
    destruct i as [|q]; [rewrite ?abs_cons_none|rewrite ?abs_cons_real, om_remove_cons, bytes_eqb_refl];
      symmetry; apply om_remove_notin; assumption.
  - destruct i as [|q]; [rewrite ?abs_cons_none; auto|].
    rewrite ?abs_cons_real, om_remove_cons, E. f_equal. auto.
Qed.

Lemma abs_retain g g' c :
  (forall k p, g k (IReal p) = g' k p) -> abs (im_retain g c) = om_retain g' (abs c).
Proof.
  intro Hg. unfold om_retain. induction c as [|[k' [|q]] c IH]; simpl; [reflexivity| |].
  - rewrite ?abs_cons_none. destruct (g k' INone); [rewrite ?abs_cons_none|]; exact IH.
  - rewrite ?abs_cons_real. simpl. rewrite <- Hg. destruct (g k' (IReal q)); [rewrite ?abs_cons_real; f_equal|]; exact IH.
Qed.

Lemma abs_visible c : map kreal (abs c) = visible c.
Proof.
  unfold visible. induction c as [|[k [|p]] c IH]; simpl; [reflexivity| |].
  - rewrite ?abs_cons_none. exact IH.
  - rewrite ?abs_cons_real. simpl. f_equal. exact IH.
Qed.

Lemma abs_length c : length (abs c) = t_len c.
Proof. unfold t_len. rewrite <- abs_visible, map_length. reflexivity. Qed.

Lemma im_get_insert k p k2 (c0 : imap item) :
  im_get k2 (im_insert k p c0) = if bytes_eqb k k2 then Some p else im_get k2 c0.
Proof. apply im_get_insert_g. Qed.

(* -- dropping a placeholder -- *)
Lemma im_get_remove_same {V} k (c : list (bytes * V)) : NoDup (keys c) -> im_get k (im_shift_remove k c) = None.
Proof. intro H. rewrite im_get_remove, bytes_eqb_refl by exact H. reflexivity. Qed.

Lemma abs_remove_ph k c : ph k c = true -> abs (im_shift_remove k c) = abs c.
Proof.
  unfold ph. induction c as [|[k' i] c IH]; simpl; [discriminate|].
  destruct (bytes_eqb k' k).
  - destruct i as [|q]; [intros _; reflexivity|discriminate].
  - intro H. destruct i as [|q]; [rewrite ?abs_cons_none|rewrite ?abs_cons_real; f_equal]; auto.
Qed.

Lemma abs_purge k c : abs (purge k c) = abs c.
Proof. unfold purge. destruct (ph k c) eqn:E; [apply abs_remove_ph; exact E|reflexivity]. Qed.

Lemma NoDup_purge k (c : imap item) : NoDup (keys c) -> NoDup (keys (purge k c)).
Proof. unfold purge. destruct (ph k c); [apply NoDup_remove|auto]. Qed.

Lemma ph_purge k c : NoDup (keys c) -> ph k (purge k c) = false.
Proof.
  intro H. unfold purge. destruct (ph k c) eqn:E; [|exact E].
  unfold ph. rewrite im_get_remove_same by exact H. reflexivity.
Qed.

Lemma NoDup_extend_p l (c : imap item) : NoDup (keys c) -> NoDup (keys (im_extend_p l c)).
Proof.
  revert c. induction l as [|[k v] l IH]; simpl; intros c H; [assumption|].
  apply IH. apply NoDup_insert. apply NoDup_purge. assumption.
Qed.

Lemma abs_extend_p (n : pay -> pay) l c :
  NoDup (keys c) ->
  abs (im_extend_p (map (fun kv => (fst kv, IReal (n (snd kv)))) l) c)
  = fold_left (fun acc kv => om_insert (fst kv) (n (snd kv)) acc) l (abs c).
Proof.
  revert c. induction l as [|[k p] l IH]; simpl; intros c H; [reflexivity|].
  rewrite IH by (apply NoDup_insert, NoDup_purge; exact H).
  rewrite abs_insert_real by (first [apply NoDup_purge; exact H | apply ph_purge; exact H]).
  rewrite abs_purge. reflexivity.
Qed.
(** * E. comparators are total preorders; small facts about items *)

Lemma rank_leb_trans a b c : rank_leb a b = true -> rank_leb b c = true -> rank_leb a c = true.
Proof. unfold rank_leb. lia. Qed.
Lemma rank_leb_total a b : rank_leb a b = false -> rank_leb b a = true.
Proof. unfold rank_leb. lia. Qed.

Definition kasc_le (a b : bytes * item) : bool := key_leb (fst a) (fst b).

Lemma kasc_trans {V} (a b c : bytes * V) :
  key_leb (fst a) (fst b) = true -> key_leb (fst b) (fst c) = true -> key_leb (fst a) (fst c) = true.
Proof. apply key_leb_trans. Qed.
Lemma kasc_total {V} (a b : bytes * V) : key_leb (fst a) (fst b) = false -> key_leb (fst b) (fst a) = true.
Proof. apply key_leb_total. Qed.

Lemma tcmp_le_trans cm a b c : tcmp_le cm a b = true -> tcmp_le cm b c = true -> tcmp_le cm a c = true.
Proof.
  destruct cm; simpl.
  - intros H1 H2. eapply key_leb_trans; eauto.
  - apply rank_leb_trans.
Qed.
Lemma tcmp_le_total cm a b : tcmp_le cm a b = false -> tcmp_le cm b a = true.
Proof. destruct cm; simpl; [apply key_leb_total|apply rank_leb_total]. Qed.

Lemma as_value_is i : as_value i = if is_value i then Some i else None.
Proof. reflexivity. Qed.

Lemma icmp_le_alt cm a b :
  icmp_le cm a b =
  match is_value (snd a), is_value (snd b) with
  | true, true => tcmp_le cm a b
  | true, false => false
  | false, _ => true
  end.
Proof.
  unfold icmp_le. rewrite !as_value_is.
  destruct (is_value (snd a)), (is_value (snd b)); destruct cm; reflexivity.
Qed.

Lemma icmp_le_trans cm a b c : icmp_le cm a b = true -> icmp_le cm b c = true -> icmp_le cm a c = true.
Proof.
  rewrite !icmp_le_alt.
  destruct (is_value (snd a)), (is_value (snd b)), (is_value (snd c)); try congruence.
  apply tcmp_le_trans.
Qed.
Lemma icmp_le_total cm a b : icmp_le cm a b = false -> icmp_le cm b a = true.
Proof.
  rewrite !icmp_le_alt.
  destruct (is_value (snd a)), (is_value (snd b)); try congruence.
  apply tcmp_le_total.
Qed.

Definition notab (i : item) : Prop := i <> IReal PTab.

Lemma is_value_real q : q <> PTab -> is_value (IReal q) = true.
Proof. destruct q; simpl; congruence. Qed.
Lemma as_value_real q : q <> PTab -> as_value (IReal q) = Some (IReal q).
Proof. intro H. unfold as_value. rewrite is_value_real; auto. Qed.
Lemma into_value_real q : q <> PTab -> into_value (IReal q) = Some (IReal q).
Proof. destruct q; simpl; congruence. Qed.
Lemma hack_real q : q <> PTab -> hack (IReal q) = IReal q.
Proof. intro H. unfold hack. rewrite into_value_real; auto. Qed.

Lemma anyph_false_visible c : anyph c = false -> visible c = c.
Proof.
  unfold anyph, visible. induction c as [|[k i] c IH]; simpl; [reflexivity|].
  intro H. apply orb_false_iff in H as [H1 H2]. rewrite H1. simpl. f_equal. auto.
Qed.

Lemma only_values_visible c : Forall (fun kv => notab (snd kv)) c -> only_values c = visible c.
Proof.
  unfold only_values, visible. induction c as [|[k i] c IH]; simpl; intro H; [reflexivity|].
  inversion H as [|? ? Hi Hc]; subst. simpl in Hi. rewrite (IH Hc).
  destruct i as [|[z| |]]; simpl; try reflexivity. exfalso. apply Hi. reflexivity.
Qed.

Lemma im_retain_ext {V} (g g2 : bytes -> V -> bool) c :
  Forall (fun kv => g (fst kv) (snd kv) = g2 (fst kv) (snd kv)) c -> im_retain g c = im_retain g2 c.
Proof.
  induction c as [|[k i] c IH]; simpl; intro H; [reflexivity|].
  inversion H as [|? ? Hi Hc]; subst. simpl in Hi. rewrite Hi, (IH Hc). reflexivity.
Qed.

Lemma emp_eq {A} (m : list A) : (match m with [] => true | _ => false end) = Nat.eqb (length m) 0.
Proof. destruct m; reflexivity. Qed.

Lemma norm_notab kd p : kd = KInline \/ kd = KInlineTL -> norm kd p <> PTab.
Proof. intros [->| ->]; destruct p; simpl; congruence. Qed.

Lemma existsb_ph_nil (l : list (bytes * pay)) : existsb (fun kv => ph (fst kv) []) l = false.
Proof. induction l as [|x l IH]; simpl; [reflexivity|exact IH]. Qed.

(* sorting commutes with abs *)
Lemma abs_sort le le' c :
  (forall a b c0, le a b = true -> le b c0 = true -> le a c0 = true) ->
  (forall a b, le a b = false -> le b a = true) ->
  forall Q : bytes * item -> Prop,
  (forall a b y z, Q a -> Q b -> keep a = Some y -> keep b = Some z -> le' y z = le a b) ->
  Forall Q c ->
  abs (im_sort_by le c) = om_sort_by le' (abs c).
Proof.
  intros Ht Hto Q Hc HQ. unfold om_sort_by. rewrite im_sort_by_eq, !abs_pmap.
  apply (pmap_stable_sort le le' keep Q Ht Hto Hc). exact HQ.
Qed.

Lemma keep_real a y : keep a = Some y -> a = (fst y, IReal (snd y)).
Proof. destruct a as [k [|p]]; unfold keep; simpl; [discriminate|]. intro H. injection H as <-. reflexivity. Qed.
(** * F. one call: Table / InlineTable / TableLike-for-InlineTable versus the reference map *)

Local Arguments om_insert {V} k v m : simpl never.
Local Arguments om_remove {V} k m : simpl never.
Local Arguments om_get {V} k m : simpl never.
Local Arguments om_mem {V} k m : simpl never.
Local Arguments om_retain {V} f m : simpl never.
Local Arguments om_sort_by {V} le m : simpl never.
Local Arguments om_sort_keys {V} m : simpl never.
Local Arguments norm kd p : simpl never.
Local Arguments visible c : simpl never.
Local Arguments only_values c : simpl never.
Local Arguments t_len c : simpl never.
Local Arguments hack i : simpl never.
Local Arguments as_value i : simpl never.
Local Arguments into_value i : simpl never.
Local Arguments is_value i : simpl never.

Definition tkind (kd : mkind) : Prop := kd = KTable \/ kd = KInline \/ kd = KInlineTL.
Definition Inv (kd : mkind) (c : imap item) : Prop :=
  NoDup (keys c) /\ (kd <> KTable -> Forall (fun kv => notab (snd kv)) c).
Definition sim (kd : mkind) (r : imap item * out) (r' : omap pay * out) : Prop :=
  Inv kd (fst r) /\ abs (fst r) = fst r' /\ snd r = snd r'.

Lemma ref_get k c :
  NoDup (keys c) -> om_get k (abs c) = match im_get k c with Some (IReal p) => Some p | _ => None end.
Proof. intro H. rewrite om_get_eq. apply abs_get. exact H. Qed.
Lemma ref_mem k c :
  NoDup (keys c) -> om_mem k (abs c) = match im_get k c with Some (IReal p) => true | _ => false end.
Proof. intro H. rewrite om_mem_eq, abs_get by assumption. destruct (im_get k c) as [[|p]|]; reflexivity. Qed.

Lemma hack_notab i : notab (hack i).
Proof. unfold notab, hack, into_value. destruct i as [|[z| |]]; congruence. Qed.

Lemma Inv_nil kd : Inv kd [].
Proof. split; [constructor|intros _; constructor]. Qed.
Lemma Inv_insert kd k i c : Inv kd c -> (kd <> KTable -> notab i) -> Inv kd (im_insert k i c).
Proof.
  intros [ND NT] Hi. split; [apply NoDup_insert; exact ND|].
  intro Hk. apply (Forall_insert notab); auto.
Qed.
Lemma Inv_remove kd k c : Inv kd c -> Inv kd (im_shift_remove k c).
Proof.
  intros [ND NT]. split; [apply NoDup_remove; exact ND|].
  intro Hk. apply (Forall_remove notab); auto.
Qed.
Lemma Inv_retain kd f c : Inv kd c -> Inv kd (im_retain f c).
Proof.
  intros [ND NT]. split; [apply NoDup_retain; exact ND|].
  intro Hk. apply (Forall_retain notab); auto.
Qed.
Lemma Inv_sort kd le c : Inv kd c -> Inv kd (im_sort_by le c).
Proof.
  intros [ND NT]. split; [apply NoDup_sort; exact ND|].
  intro Hk. apply (Forall_sort notab); auto.
Qed.
Lemma Inv_purge kd k c : Inv kd c -> Inv kd (purge k c).
Proof. intro HI. unfold purge. destruct (ph k c); [apply Inv_remove|]; exact HI. Qed.
Lemma Inv_extend kd l c :
  Inv kd c -> (kd <> KTable -> Forall (fun kv => notab (snd kv)) l) -> Inv kd (im_extend_p l c).
Proof.
  revert c. induction l as [|[k v] l IH]; simpl; intros c HI Hl; [exact HI|].
  apply IH.
  - apply Inv_insert; [apply Inv_purge; exact HI|]. intro Hn. specialize (Hl Hn). inversion Hl; subst. assumption.
  - intro Hn. specialize (Hl Hn). inversion Hl; subst. assumption.
Qed.

Lemma notab_norm kd p : tkind kd -> kd <> KTable -> notab (IReal (norm kd p)).
Proof.
  intros [->|H] Hk; [congruence|]. unfold notab. pose proof (norm_notab kd p H). congruence.
Qed.
Lemma notab_none : notab INone.
Proof. unfold notab. congruence. Qed.

Lemma ref_insert_t kd : tkind kd -> ref_insert kd = om_insert.
Proof. intros [->|[->| ->]]; reflexivity. Qed.
Lemma is_map_kind_t kd : tkind kd -> is_map_kind kd = false.
Proof. intros [->|[->| ->]]; reflexivity. Qed.

Section OneCall.
  Variable kd : mkind.
  Variable c : imap item.
  Hypothesis Hk : tkind kd.
  Hypothesis HI : Inv kd c.

  Let ND : NoDup (keys c) := proj1 HI.

  Lemma get_notab k q : kd <> KTable -> im_get k c = Some (IReal q) -> q <> PTab.
  Proof.
    intros Hn G. pose proof (Forall_get notab k c _ (proj2 HI Hn) G) as H. unfold notab in H. congruence.
  Qed.

  (* inserting a real item at a key that is not a placeholder *)
  Lemma L_ins k p :
    ph k c = false ->
    Inv kd (im_insert k (IReal (norm kd p)) c) /\
    abs (im_insert k (IReal (norm kd p)) c) = om_insert k (norm kd p) (abs c).
  Proof.
    intros Hp. split.
    - apply Inv_insert; [exact HI|]. intro. apply notab_norm; assumption.
    - apply abs_insert_real; assumption.
  Qed.
  Lemma L_rm k : Inv kd (im_shift_remove k c) /\ abs (im_shift_remove k c) = om_remove k (abs c).
  Proof. split; [apply Inv_remove; exact HI|apply abs_remove; exact ND]. Qed.
  Lemma L_touch k : im_get k c = None -> Inv kd (im_insert k INone c) /\ abs (im_insert k INone c) = abs c.
  Proof.
    intro G. split; [|apply abs_insert_none; exact G].
    apply Inv_insert; [exact HI|]. intro. apply notab_none.
  Qed.
End OneCall.

Lemma retain_inline f c :
  Forall (fun kv => notab (snd kv)) c ->
  im_retain (fun k i => match as_value i with Some v => pred_eval f k v | None => false end) c
  = im_retain (fun k i => negb (is_none i) && pred_eval f k i) c.
Proof.
  intro H. apply im_retain_ext. eapply Forall_impl; [|exact H].
  intros [k [|q]] Hn; simpl in *; [reflexivity|].
  rewrite as_value_real; [reflexivity|]. unfold notab in Hn. congruence.
Qed.

Lemma sort_keys_sim kd c :
  Inv kd c ->
  Inv kd (im_sort_by (fun a b : bytes * item => key_leb (fst a) (fst b)) c) /\
  abs (im_sort_by (fun a b : bytes * item => key_leb (fst a) (fst b)) c) = om_sort_keys (abs c).
Proof.
  intro HI. split; [apply Inv_sort; exact HI|].
  unfold om_sort_keys. apply abs_sort with (Q := fun _ => True).
  - intros a b d. apply key_leb_trans.
  - intros a b. apply key_leb_total.
  - intros a b y z _ _ Ha Hb. apply keep_real in Ha. apply keep_real in Hb. subst. reflexivity.
  - apply Forall_forall. auto.
Qed.

Lemma sort_by_table_sim cm c :
  Inv KTable c ->
  Inv KTable (im_sort_by (tcmp_le cm) c) /\
  abs (im_sort_by (tcmp_le cm) c) = om_sort_by (cmp_le cm) (abs c).
Proof.
  intro HI. split; [apply Inv_sort; exact HI|].
  apply abs_sort with (Q := fun _ => True).
  - apply tcmp_le_trans.
  - apply tcmp_le_total.
  - intros a b y z _ _ Ha Hb. apply keep_real in Ha. apply keep_real in Hb. subst. destruct cm; reflexivity.
  - apply Forall_forall. auto.
Qed.

Lemma sort_by_inline_sim kd cm c :
  kd <> KTable -> Inv kd c ->
  Inv kd (im_sort_by (icmp_le cm) c) /\
  abs (im_sort_by (icmp_le cm) c) = om_sort_by (cmp_le cm) (abs c).
Proof.
  intros Hk HI. split; [apply Inv_sort; exact HI|].
  apply abs_sort with (Q := fun kv => notab (snd kv)).
  - apply icmp_le_trans.
  - apply icmp_le_total.
  - intros a b y z Qa Qb Ha Hb. apply keep_real in Ha. apply keep_real in Hb. subst. simpl in *.
    rewrite icmp_le_alt. simpl.
    rewrite !is_value_real by (unfold notab in *; congruence). destruct cm; reflexivity.
  - exact (proj2 HI Hk).
Qed.

Lemma extend_sim kd l c :
  tkind kd -> Inv kd c ->
  Inv kd (im_extend_p (map (fun kv : bytes * pay => (fst kv, IReal (norm kd (snd kv)))) l) c) /\
  abs (im_extend_p (map (fun kv : bytes * pay => (fst kv, IReal (norm kd (snd kv)))) l) c)
  = fold_left (fun (acc : omap pay) (kv : bytes * pay) => om_insert (fst kv) (norm kd (snd kv)) acc) l (abs c).
Proof.
  intros Hk HI. split.
  - apply Inv_extend; [exact HI|]. intro Hn. apply Forall_forall. intros x Hx.
    apply in_map_iff in Hx as [kv [<- _]]. simpl. apply notab_norm; assumption.
  - apply (abs_extend_p (norm kd)). exact (proj1 HI).
Qed.

(* "this call meets a placeholder under its key": never the case after `prep` *)
Definition tsens' (kd : mkind) (c : imap item) (o : mop) : bool :=
  match o with
  | MIns k _ | MInsF k _ | MEnt k | MEoi k _ | MEins k _ | MErm k | MGoi k _ | MISet k _ | MIoi k _ => ph k c
  | MRm k | MRmE k => match kd with KTable => ph k c | _ => false end
  | _ => false
  end.

Lemma tbody_sim kd c o :
  tkind kd -> Inv kd c -> avail kd o = true -> tsens' kd c o = false ->
  sim kd (tbody kd c o) (ref_step kd (abs c) o).
Proof.
  intros Hk HI Av Hs. pose proof (proj1 HI) as ND.
  destruct o.
  all: try (pose proof (ref_get k c ND) as G; pose proof (ref_mem k c ND) as M).
  all: try (pose proof (L_ins kd c Hk HI k p) as Li).
  all: try (pose proof (L_rm kd c HI k) as [Lr1 Lr2]).
  all: try (pose proof (L_touch kd c HI k) as Lt).
  all: try (pose proof (get_notab kd c HI k) as Lq).
  all: destruct Hk as [->|[->| ->]]; cbn in Av; try discriminate Av; clear Av.
  all: unfold sim, tbody, ref_step; cbn in Hs; cbn.
  all: try (unfold ph in *; destruct (im_get k c) as [[|q]|] eqn:Gk; try discriminate Hs).
  all: try rewrite G; try rewrite M; cbn.
  all: try (destruct Li as [Li1 Li2]; [reflexivity|]).
  all: try (assert (Hq : q <> PTab) by (apply Lq; [discriminate|reflexivity])).
  all: rewrite ?into_value_real, ?as_value_real, ?hack_real, ?is_value_real by assumption.
  all: unfold real in *.
  all: try (solve [split; [first [assumption | apply Inv_nil] | split; [first [assumption | reflexivity] | first [reflexivity | destruct q; reflexivity || congruence]]]]).
  all: rewrite ?abs_length, ?emp_eq, ?abs_length, ?abs_visible.
  all: try rewrite (only_values_visible c) by (apply (proj2 HI); discriminate).
  all: try rewrite (im_insert_same k (IReal q) c Gk).
  all: try rewrite (retain_inline f c) by (apply (proj2 HI); discriminate).
  all: try (solve [split; [first [assumption | apply Inv_nil] | split; reflexivity]]).
  all: try (solve [split; [apply Inv_retain; assumption | split; [apply abs_retain; reflexivity | reflexivity]]]).
  all: try (solve [destruct (sort_keys_sim _ c HI); auto]).
  all: try (solve [destruct (sort_by_table_sim c0 c HI); auto]).
  all: try (solve [destruct (Lt eq_refl); auto]).
  all: match goal with |- Inv ?K _ /\ _ => assert (HK : tkind K) by (unfold tkind; tauto) end.
  all: try (solve [destruct (extend_sim _ l c HK HI); auto]).
  all: try (solve [destruct (extend_sim _ l [] HK (Inv_nil _)); auto]).
  all: match goal with |- Inv ?K _ /\ _ => assert (HnK : K <> KTable) by discriminate end.
  all: destruct (sort_by_inline_sim _ c0 c HnK HI); auto.
Qed.

(* ---- the call with its `remove_placeholder` ---- *)
Lemma prep_facts kd c o :
  Inv kd c -> Inv kd (prep kd o c) /\ abs (prep kd o c) = abs c /\ tsens' kd (prep kd o c) o = false.
Proof.
  intro HI. pose proof (proj1 HI) as ND.
  assert (P : forall k, Inv kd (purge k c) /\ abs (purge k c) = abs c /\ ph k (purge k c) = false).
  { intro k. split; [apply Inv_purge; exact HI|]. split; [apply abs_purge|apply ph_purge; exact ND]. }
  destruct o; cbn [prep tsens']; try (split; [exact HI|split; reflexivity]); try apply P.
  - destruct kd; first [apply P | (split; [exact HI|split; reflexivity])].
  - destruct kd; first [apply P | (split; [exact HI|split; reflexivity])].
  - (* &mut c[k]: purged, and not a sensitive call *)
    destruct (P k) as [P1 [P2 _]]. auto.
Qed.

Lemma tstep_sim kd c o :
  tkind kd -> Inv kd c -> sim kd (tstep kd c o) (ref_step kd (abs c) o).
Proof.
  intros Hk HI. unfold tstep. destruct (avail kd o) eqn:Av; cbn [negb].
  - destruct (prep_facts kd c o HI) as [HI' [Ha Hs]]. rewrite <- Ha.
    apply tbody_sim; assumption.
  - unfold sim, ref_step. rewrite Av. cbn. auto.
Qed.

(* ---- the final observation ---- *)
Lemma anyph_false_get k c : anyph c = false -> im_get k c <> Some INone.
Proof.
  unfold anyph. induction c as [|[k' i] c IH]; simpl; [congruence|].
  intro H. apply orb_false_iff in H as [H1 H2].
  destruct (bytes_eqb k' k); [destruct i; [discriminate|congruence]|auto].
Qed.

Lemma t_values_table c :
  t_values c = filter (fun kv : bytes * pay => match snd kv with PTab => false | _ => true end) (abs c).
Proof.
  induction c as [|[k [|[z| |]]] c IH]; simpl; rewrite ?IH; reflexivity.
Qed.

Lemma t_values_inline c : Forall (fun kv => notab (snd kv)) c -> t_values c = abs c.
Proof.
  induction c as [|[k [|[z| |]]] c IH]; simpl; intro H; inversion H as [|? ? Hi Hc]; subst;
    try rewrite (IH Hc); try reflexivity.
  exfalso. apply Hi. reflexivity.
Qed.

Lemma tobserve_sim kd ks c :
  tkind kd -> Inv kd c -> tobserve kd ks c = ref_observe kd ks (abs c).
Proof.
  intros Hk HI. pose proof (proj1 HI) as ND.
  unfold tobserve, ref_observe. rewrite abs_length, emp_eq, abs_length, abs_visible.
  f_equal.
  - destruct Hk as [->|[->| ->]]; reflexivity.
  - apply map_ext. intro k. f_equal. rewrite (ref_get k c ND).
    pose proof (get_notab kd c HI k) as Lq.
    destruct Hk as [->|[->| ->]]; cbn; destruct (im_get k c) as [[|q]|] eqn:Gk; cbn; try reflexivity.
    rewrite as_value_real; [reflexivity|]. apply Lq; [discriminate|reflexivity].
  - apply map_ext. intro k. f_equal. rewrite (ref_mem k c ND).
    pose proof (get_notab kd c HI k) as Lq.
    destruct Hk as [->|[->| ->]]; cbn; destruct (im_get k c) as [[|q]|] eqn:Gk; cbn; try reflexivity.
    all: rewrite is_value_real; [reflexivity|]; apply Lq; [discriminate|reflexivity].
  - destruct Hk as [->|[->| ->]]; cbn.
    + apply t_values_table.
    + apply t_values_inline. apply (proj2 HI). discriminate.
    + apply t_values_inline. apply (proj2 HI). discriminate.
Qed.

(* ---- all histories ---- *)
Lemma run_cons {S O R} (step : S -> O -> S * R) s o h :
  run step s (o :: h) = (fst (run step (fst (step s o)) h), snd (step s o) :: snd (run step (fst (step s o)) h)).
Proof. simpl. destruct (step s o) as [s1 r]. simpl. destruct (run step s1 h) as [s2 rs]. reflexivity. Qed.

Lemma trun_sim kd : tkind kd -> forall h c, Inv kd c ->
  Inv kd (fst (run (tstep kd) c h)) /\
  abs (fst (run (tstep kd) c h)) = fst (run (ref_step kd) (abs c) h) /\
  snd (run (tstep kd) c h) = snd (run (ref_step kd) (abs c) h).
Proof.
  intros Hk. induction h as [|o h IH]; intros c HI.
  - simpl. split; [exact HI|]. split; reflexivity.
  - destruct (tstep_sim kd c o Hk HI) as [HI1 [Ha Ho]].
    rewrite !run_cons. cbn [fst snd].
    destruct (IH _ HI1) as [HI2 [Ha2 Ho2]].
    rewrite Ha in Ha2, Ho2. split; [exact HI2|]. split; [exact Ha2|]. congruence.
Qed.

(* EVERY history: what each call returns and what the container shows afterwards are those of
   the plain reference ordered map *)
Theorem table_like_refines kd h :
  tkind kd ->
  snd (run (tstep kd) [] h) = snd (run (ref_step kd) [] h) /\
  forall ks, tobserve kd ks (fst (run (tstep kd) [] h)) = ref_observe kd ks (fst (run (ref_step kd) [] h)).
Proof.
  intros Hk.
  destruct (trun_sim kd Hk h [] (Inv_nil kd)) as [HI [Ha Ho]].
  split; [exact Ho|]. intro ks. change (@nil (bytes * pay)) with (abs []). rewrite <- Ha.
  apply tobserve_sim; assumption.
Qed.

(* ---- invariants hold in every reachable state ---- *)
Lemma tstep_inv kd c o : tkind kd -> Inv kd c -> Inv kd (fst (tstep kd c o)).
Proof. intros Hk HI. exact (proj1 (tstep_sim kd c o Hk HI)). Qed.

Lemma trun_inv kd : tkind kd -> forall h c, Inv kd c -> Inv kd (fst (run (tstep kd) c h)).
Proof. intros Hk h c HI. exact (proj1 (trun_sim kd Hk h c HI)). Qed.

(* the read accessors in ANY reachable state show exactly the real entries *)
Theorem table_like_view kd h ks :
  tkind kd ->
  tobserve kd ks (fst (run (tstep kd) [] h)) = ref_observe kd ks (abs (fst (run (tstep kd) [] h))).
Proof. intro Hk. apply tobserve_sim; [exact Hk|]. apply trun_inv; [exact Hk|apply Inv_nil]. Qed.

(* placeholders are invisible: removing them physically changes no observation *)
Lemma im_get_visible k c : NoDup (keys c) -> im_get k (visible c) = flt (im_get k c).
Proof.
  unfold visible. induction c as [|[k' [|p]] c IH]; simpl; intro H; [reflexivity| |]; inversion H as [|? ? Hn Hc]; subst.
  - destruct (bytes_eqb k' k) eqn:E; [|auto]. apply bytes_eqb_eq in E. subst. simpl.
    apply im_get_notin. intro Hin. apply keys_retain in Hin. tauto.
  - simpl. destruct (bytes_eqb k' k); [reflexivity|auto].
Qed.

Lemma visible_idem c : visible (visible c) = visible c.
Proof.
  unfold visible. induction c as [|[k [|p]] c IH]; simpl; [reflexivity|exact IH|]. f_equal. exact IH.
Qed.

Lemma t_values_visible c : t_values (visible c) = t_values c.
Proof.
  unfold visible. induction c as [|[k [|[z| |]]] c IH]; simpl; rewrite ?IH; reflexivity.
Qed.

Lemma flt_idem o : flt (flt o) = flt o.
Proof. destruct o as [[|p]|]; reflexivity. Qed.

Theorem placeholders_invisible kd ks c :
  tkind kd -> NoDup (keys c) -> tobserve kd ks c = tobserve kd ks (visible c).
Proof.
  intros Hk ND. unfold tobserve, t_len. rewrite visible_idem, t_values_visible. f_equal.
  - destruct Hk as [->|[->| ->]]; cbn; rewrite visible_idem; reflexivity.
  - apply map_ext. intro k. f_equal.
    destruct Hk as [->|[->| ->]]; cbn; rewrite (im_get_visible k c ND); rewrite ?flt_idem; try reflexivity.
    destruct (im_get k c) as [[|p]|]; reflexivity.
  - apply map_ext. intro k. f_equal.
    destruct Hk as [->|[->| ->]]; cbn; rewrite (im_get_visible k c ND); destruct (im_get k c) as [[|p]|]; reflexivity.
Qed.
(** * G. toml::map::Map: BTreeMap / IndexMap specification versus the reference maps *)

Section Sorted.
  Context {V : Type}.
  Implicit Types (c : list (bytes * V)).

  Definition klt (a b : bytes * V) : Prop := key_ltb (fst a) (fst b) = true.
  Definition ksorted c : Prop := sorted_by klt c.

  Lemma ksorted_NoDup c : ksorted c -> NoDup (keys c).
  Proof.
    induction c as [|[k v] c IH]; simpl; intro H; [constructor|]. destruct H as [Hf Hs].
    constructor; [|apply IH; exact Hs]. intro Hin. apply in_map_iff in Hin as [[k2 v2] [E Hin]]. simpl in E. subst.
    rewrite Forall_forall in Hf. specialize (Hf _ Hin). unfold klt in Hf. simpl in Hf.
    rewrite key_ltb_irrefl in Hf. discriminate.
  Qed.

  Lemma sorted_by_filter (R : bytes * V -> bytes * V -> Prop) f c : sorted_by R c -> sorted_by R (filter f c).
  Proof.
    induction c as [|x c IH]; simpl; intro H; [exact I|]. destruct H as [Hf Hs].
    destruct (f x); simpl; [|auto]. split; [|auto].
    apply Forall_forall. intros y Hy. apply filter_In in Hy as [Hy _]. rewrite Forall_forall in Hf. auto.
  Qed.

  Lemma filter_none f c : Forall (fun x => f x = false) c -> filter f c = [].
  Proof. induction c as [|x c IH]; simpl; intro H; [reflexivity|]. inversion H; subst. rewrite H2. auto. Qed.
  Lemma filter_all f c : Forall (fun x => f x = true) c -> filter f c = c.
  Proof. induction c as [|x c IH]; simpl; intro H; [reflexivity|]. inversion H; subst. rewrite H2. f_equal. auto. Qed.

  Lemma bt_insert_eq k v c : ksorted c -> bt_insert k v c = sm_insert k v c.
  Proof.
    unfold sm_insert. induction c as [|[k' v'] c IH]; simpl; intro H; [reflexivity|]. destruct H as [Hf Hs].
    assert (Hgt : forall x, In x c -> key_ltb k' (fst x) = true).
    { rewrite Forall_forall in Hf. exact Hf. }
    destruct (key_compare k k') eqn:E.
    - (* same key *)
      apply key_compare_eq in E. subst k'. rewrite key_ltb_irrefl. simpl.
      rewrite filter_none, filter_all; [reflexivity| |]; apply Forall_forall; intros x Hx; simpl.
      + apply Hgt. exact Hx.
      + apply key_ltb_asym. apply Hgt. exact Hx.
    - (* k < k' *)
      assert (L : key_ltb k k' = true) by (unfold key_ltb; rewrite E; reflexivity).
      rewrite (key_ltb_asym _ _ L), L. simpl.
      rewrite filter_none, filter_all; [reflexivity| |]; apply Forall_forall; intros x Hx; simpl.
      + eapply key_ltb_trans; [exact L|]. apply Hgt. exact Hx.
      + apply key_ltb_asym. eapply key_ltb_trans; [exact L|]. apply Hgt. exact Hx.
    - (* k' < k *)
      assert (L : key_ltb k' k = true).
      { unfold key_ltb. rewrite (key_compare_antisym k k'), E. reflexivity. }
      rewrite L, (key_ltb_asym _ _ L). simpl. rewrite (IH Hs). reflexivity.
  Qed.

  Lemma bt_insert_Forall (P : bytes -> Prop) k v c :
    Forall (fun kv => P (fst kv)) c -> P k -> Forall (fun kv => P (fst kv)) (bt_insert k v c).
  Proof.
    intros H Hk. induction c as [|[k' v'] c IH]; simpl; [repeat constructor; exact Hk|].
    inversion H; subst. destruct (key_compare k k'); repeat constructor; auto.
  Qed.

  Lemma bt_insert_sorted k v c : ksorted c -> ksorted (bt_insert k v c).
  Proof.
    induction c as [|[k' v'] c IH]; simpl; intro H; [split; [constructor|exact I]|]. destruct H as [Hf Hs].
    destruct (key_compare k k') eqn:E; simpl.
    - split; [exact Hf|exact Hs].
    - assert (L : key_ltb k k' = true) by (unfold key_ltb; rewrite E; reflexivity).
      split; [|split; [exact Hf|exact Hs]]. constructor; [exact L|].
      eapply Forall_impl; [|exact Hf]. intros x Hx. unfold klt in *. simpl in *. eapply key_ltb_trans; eauto.
    - assert (L : key_ltb k' k = true).
      { unfold key_ltb. rewrite (key_compare_antisym k k'), E. reflexivity. }
      split; [|apply IH; exact Hs]. apply (bt_insert_Forall (fun x => key_ltb k' x = true)); [exact Hf|exact L].
  Qed.
End Sorted.

Definition PInv (kd : mkind) (c : imap pay) : Prop :=
  match kd with KMapSorted => ksorted c | _ => NoDup (keys c) end.
Definition pkind (kd : mkind) : Prop := kd = KMapSorted \/ kd = KMapOrdered.

Lemma PInv_NoDup kd c : PInv kd c -> NoDup (keys c).
Proof. destruct kd; simpl; auto using ksorted_NoDup. Qed.

Lemma p_insert_sim kd k p c :
  pkind kd -> PInv kd c -> PInv kd (p_insert kd k p c) /\ p_insert kd k p c = ref_insert kd k p c.
Proof.
  intros [->| ->] HI; simpl in *.
  - split; [apply bt_insert_sorted; exact HI|apply bt_insert_eq; exact HI].
  - split; [apply NoDup_insert; exact HI|apply im_insert_eq; exact HI].
Qed.

Lemma p_remove_sim kd k c :
  pkind kd -> PInv kd c -> PInv kd (im_shift_remove k c) /\ im_shift_remove k c = om_remove k c.
Proof.
  intros Hk HI. pose proof (PInv_NoDup kd c HI) as ND. split; [|apply im_shift_remove_eq; exact ND].
  destruct Hk as [->| ->]; simpl in *.
  - rewrite im_shift_remove_eq by exact ND. apply sorted_by_filter. exact HI.
  - apply NoDup_remove. exact HI.
Qed.

Lemma p_retain_sim kd f c :
  pkind kd -> PInv kd c -> PInv kd (im_retain f c) /\ im_retain f c = om_retain f c.
Proof.
  intros Hk HI. split; [|apply im_retain_eq].
  destruct Hk as [->| ->]; simpl in *.
  - rewrite im_retain_eq. apply sorted_by_filter. exact HI.
  - apply NoDup_retain. exact HI.
Qed.

Lemma p_extend_sim kd l : pkind kd -> forall c, PInv kd c ->
  PInv kd (p_extend kd l c) /\
  p_extend kd l c = fold_left (fun acc kv => ref_insert kd (fst kv) (norm kd (snd kv)) acc) l c.
Proof.
  intros Hk. induction l as [|[k p] l IH]; intros c HI.
  - destruct Hk as [->| ->]; simpl; auto.
  - destruct (p_insert_sim kd k p c Hk HI) as [HI1 E1].
    destruct (IH _ HI1) as [HI2 E2].
    assert (En : norm kd p = p) by (destruct Hk as [->| ->]; reflexivity).
    cbn [fold_left fst snd]. rewrite En, <- E1, <- E2.
    destruct Hk as [->| ->]; simpl in *; auto.
Qed.

Lemma PInv_nil kd : pkind kd -> PInv kd [].
Proof. intros [->| ->]; simpl; [exact I|constructor]. Qed.

Local Arguments om_insert {V} k v m : simpl never.
Local Arguments sm_insert {V} k v m : simpl never.
Local Arguments om_remove {V} k m : simpl never.
Local Arguments om_get {V} k m : simpl never.
Local Arguments om_mem {V} k m : simpl never.
Local Arguments om_retain {V} f m : simpl never.
Local Arguments p_insert kd k p c : simpl never.
Local Arguments p_extend kd l c : simpl never.
Local Arguments ref_insert kd k p m : simpl never.

Lemma pstep_sim kd c o :
  pkind kd -> PInv kd c ->
  PInv kd (fst (pstep kd c o)) /\ fst (pstep kd c o) = fst (ref_step kd c o) /\ snd (pstep kd c o) = snd (ref_step kd c o).
Proof.
  intros Hk HI. unfold pstep, ref_step.
  destruct (avail kd o) eqn:Av; cbn [negb]; [|cbn; auto].
  assert (Hm : is_map_kind kd = true) by (destruct Hk as [->| ->]; reflexivity).
  assert (Hn : forall p, norm kd p = p) by (intro p; destruct Hk as [->| ->]; reflexivity).
  rewrite Hm.
  destruct o.
  all: try (destruct (p_insert_sim kd k p c Hk HI) as [Li1 Li2]).
  all: try (destruct (p_remove_sim kd k c Hk HI) as [Lr1 Lr2]).
  all: try (destruct (p_retain_sim kd (fun k p => pred_eval f k (IReal p)) c Hk HI) as [Lf1 Lf2]).
  all: try (destruct (p_extend_sim kd l Hk c HI) as [Le1 Le2]).
  all: try (destruct (p_extend_sim kd l Hk [] (PInv_nil kd Hk)) as [Lg1 Lg2]).
  all: try (destruct Hk as [->| ->]; discriminate Av).
  all: cbn [fst snd]; rewrite ?Hn, ?om_get_eq, ?om_mem_eq, ?emp_eq; unfold real.
  all: try (destruct (im_get k c) as [q|] eqn:Gk; cbn).
  all: try (solve [repeat split; first [assumption | reflexivity | apply PInv_nil; assumption]]).
Qed.

Lemma prun_sim kd : pkind kd -> forall h c, PInv kd c ->
  PInv kd (fst (run (pstep kd) c h)) /\
  fst (run (pstep kd) c h) = fst (run (ref_step kd) c h) /\
  snd (run (pstep kd) c h) = snd (run (ref_step kd) c h).
Proof.
  intros Hk. induction h as [|o h IH]; intros c HI.
  - simpl. auto.
  - destruct (pstep_sim kd c o Hk HI) as [HI1 [Ha Ho]].
    rewrite !run_cons. cbn [fst snd]. destruct (IH _ HI1) as [HI2 [Ha2 Ho2]].
    rewrite Ha in *. split; [exact HI2|]. split; [exact Ha2|]. congruence.
Qed.

Lemma pobserve_sim kd ks c : pkind kd -> pobserve ks c = ref_observe kd ks c.
Proof.
  intro Hk. unfold pobserve, ref_observe. rewrite emp_eq. f_equal.
  - apply map_ext. intro k. rewrite om_get_eq. reflexivity.
  - apply map_ext. intro k. rewrite om_mem_eq. reflexivity.
  - destruct Hk as [->| ->]; reflexivity.
Qed.

Theorem map_refines kd h :
  pkind kd ->
  snd (run (pstep kd) [] h) = snd (run (ref_step kd) [] h) /\
  forall ks, pobserve ks (fst (run (pstep kd) [] h)) = ref_observe kd ks (fst (run (ref_step kd) [] h)).
Proof.
  intro Hk. destruct (prun_sim kd Hk h [] (PInv_nil kd Hk)) as [_ [Ha Ho]].
  split; [exact Ho|]. intro ks. rewrite <- Ha. apply pobserve_sim. exact Hk.
Qed.
(** * H. Array / ArrayOfTables: Vec specification versus the reference vector *)

Lemma v_get_eq i : forall v, v_get i v = nth_error v i.
Proof. induction i as [|i IH]; intros [|y v]; simpl; auto. Qed.

Lemma v_insert_eq i x : forall v, v_insert i x v = vec_insert i x v.
Proof.
  unfold vec_insert. induction i as [|i IH]; intros [|y v]; simpl; try reflexivity.
  rewrite IH. destruct (i <=? length v)%nat; reflexivity.
Qed.

Lemma v_remove_eq i : forall v, v_remove i v = vec_remove i v.
Proof.
  unfold vec_remove. induction i as [|i IH]; intros [|y v]; simpl; try reflexivity.
  rewrite IH. destruct (nth_error v i); reflexivity.
Qed.

Lemma v_replace_eq i x : forall v, v_replace i x v = vec_replace i x v.
Proof.
  unfold vec_replace. induction i as [|i IH]; intros [|y v]; simpl; try reflexivity.
  rewrite IH. destruct (nth_error v i); reflexivity.
Qed.

Lemma v_retain_eq f v : v_retain f v = filter f v.
Proof. induction v as [|y v IH]; simpl; [reflexivity|]. rewrite IH. reflexivity. Qed.

Lemma v_ins_sorted_eq le x v : v_ins_sorted le x v = sorted_insert le x v.
Proof. induction v as [|y v IH]; simpl; [reflexivity|]. rewrite IH. reflexivity. Qed.
Lemma v_sort_by_eq le v : v_sort_by le v = stable_sort le v.
Proof. induction v as [|y v IH]; simpl; [reflexivity|]. rewrite v_ins_sorted_eq, IH. reflexivity. Qed.

Lemma v_extend_eq l : forall v, v_extend l v = v ++ l.
Proof.
  induction l as [|x l IH]; intro v; simpl; [rewrite app_nil_r; reflexivity|].
  rewrite IH, <- app_assoc. reflexivity.
Qed.

Lemma v_gets_eq c n : forall i, v_gets n i c = map (fun j => (j, nth_error c j)) (seq i n).
Proof. induction n as [|n IH]; intro i; simpl; [reflexivity|]. rewrite v_get_eq, IH. reflexivity. Qed.

Lemma vstep_eq kd c o : vstep kd c o = vref_step kd c o.
Proof.
  unfold vstep, vref_step. destruct (vavail kd o); cbn [negb]; [|reflexivity].
  destruct o; rewrite ?v_insert_eq, ?v_remove_eq, ?v_replace_eq, ?v_get_eq, ?v_retain_eq, ?v_sort_by_eq,
    ?v_extend_eq, ?emp_eq; reflexivity.
Qed.

Lemma run_ext {S O R} (f g : S -> O -> S * R) : (forall s o, f s o = g s o) -> forall h s, run f s h = run g s h.
Proof. intros E. induction h as [|o h IH]; intro s; simpl; [reflexivity|]. rewrite E. destruct (g s o). rewrite IH. reflexivity. Qed.

Lemma vobserve_eq c : vobserve c = vref_observe c.
Proof. unfold vobserve, vref_observe. rewrite emp_eq, v_gets_eq. reflexivity. Qed.

Theorem vec_refines kd h :
  snd (run (vstep kd) [] h) = snd (run (vref_step kd) [] h) /\
  vobserve (fst (run (vstep kd) [] h)) = vref_observe (fst (run (vref_step kd) [] h)).
Proof.
  rewrite (run_ext (vstep kd) (vref_step kd) (vstep_eq kd)). split; [reflexivity|apply vobserve_eq].
Qed.

(** * I. no call sees a placeholder; the witnesses of the placeholder class *)

(* in any reachable state EVERY call (not only the read accessors) answers like the reference map *)
Theorem calls_blind kd h o :
  tkind kd ->
  snd (tstep kd (fst (run (tstep kd) [] h)) o) = snd (ref_step kd (abs (fst (run (tstep kd) [] h))) o).
Proof.
  intros Hk.
  pose proof (trun_inv kd Hk h [] (Inv_nil kd)) as HI.
  destruct (tstep_sim kd _ o Hk HI) as [_ [_ Ho]]. exact Ho.
Qed.

Theorem placeholders_invisible_reachable kd h ks :
  tkind kd ->
  tobserve kd ks (fst (run (tstep kd) [] h)) = tobserve kd ks (visible (fst (run (tstep kd) [] h))).
Proof.
  intro Hk. apply placeholders_invisible; [exact Hk|].
  exact (proj1 (trun_inv kd Hk h [] (Inv_nil kd))).
Qed.

Definition ka : bytes := ["a"%byte].
Definition kb : bytes := ["b"%byte].

(* the histories on which the containers were NOT plain ordered maps before the repair
   (finding C16-placeholder-residue), kept as regression examples *)
(* Table: `let _ = &mut t["a"]; t.insert("a", 1)` returned Some(Item::None) *)
Definition w_table_insert : list mop := [MIdxM ka; MIns ka (PInt 1)].
(* Table: `let _ = &mut t["a"]; t.entry("a").or_insert(1)` returned the none item and stored nothing *)
Definition w_table_or_insert : list mop := [MIdxM ka; MEoi ka (PInt 1); MLen].
(* Table: a placeholder reserved a position: a, b instead of b, a *)
Definition w_table_order : list mop := [MIdxM ka; MISet kb (PInt 1); MISet ka (PInt 2); MIter].
(* InlineTable: `entry("a")` on a placeholder turned it into `{}` *)
Definition w_inline_entry : list mop := [MIdxM ka; MEnt ka; MLen].
(* InlineTable: `get_or_insert("a", 1)` on a placeholder panicked *)
Definition w_inline_goi : list mop := [MIdxM ka; MGoi ka (PInt 1)].
(* TableLike for InlineTable: entry("a") was Occupied(Item::None), or_insert stored nothing *)
Definition w_tl_entry : list mop := [MIdxM ka; MEoi ka (PInt 1); MLen].

Definition agrees (kd : mkind) (h : list mop) : Prop :=
  snd (run (tstep kd) [] h) = snd (run (ref_step kd) [] h).

Lemma w_table_insert_agrees : agrees KTable w_table_insert.
Proof. vm_compute. reflexivity. Qed.
Lemma w_table_or_insert_agrees : agrees KTable w_table_or_insert.
Proof. vm_compute. reflexivity. Qed.
Lemma w_table_order_agrees : agrees KTable w_table_order.
Proof. vm_compute. reflexivity. Qed.
Lemma w_inline_entry_agrees : agrees KInline w_inline_entry.
Proof. vm_compute. reflexivity. Qed.
Lemma w_inline_goi_agrees : agrees KInline w_inline_goi.
Proof. vm_compute. reflexivity. Qed.
Lemma w_tl_entry_agrees : agrees KInlineTL w_tl_entry.
Proof. vm_compute. reflexivity. Qed.
