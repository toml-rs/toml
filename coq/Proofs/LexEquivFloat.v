(* Proofs/LexEquivFloat.v — L1 for floats: zero-prefixable-int, frac, exp, the shape parser
   float_, the exact decimal `fdec_of_text` computes from the recognised text, and `float`
   (overflow guard, inf / nan). *)
From TV Require Import Base.Prelude Base.Winnow Gen.Consts Spec.Abnf Spec.Lex.
From TV Require Import Model.Datetime Model.Numbers.
From TV Require Import Proofs.ConstsOk Proofs.LexEquivBase Proofs.LexEquivInt.
Require Import Lia ZifyBool ZifyN ZifyNat.

Definition is_e (b : byte) : bool := byte_eqb b x65 || byte_eqb b x45.

(* ---- zero-prefixable-int = DIGIT *( DIGIT / underscore DIGIT ) ------------------------------------ *)
Lemma zpi_complete i u ds r :
  zero_prefixable_int_tok u ds -> rest i = u ++ r -> stops (us_or Abnf.digit) r ->
  zero_prefixable_int i = Ok u (adv u i).
Proof.
  intros Hu H Hr. destruct (cat_one_star_facts _ digit_class_digit u ds Hu) as (Au & _ & _ & _ & b & t & v & -> & _ & Hb & St).
  unfold zero_prefixable_int, digit. apply unchecked_ok; [|apply utf8_ascii; exact Au].
  apply (taken_ok _ _ tt); [|apply (splits_adv _ _ r H)].
  apply (digits_us_complete _ _ DIGIT_ok digit_class_digit _ _ DIGIT_ok i b t v r H Hb St Hr).
Qed.

Lemma zpi_sound i u i' : zero_prefixable_int i = Ok u i' ->
  splits i u i' /\ (exists ds, zero_prefixable_int_tok u ds) /\ stops (us_or Abnf.digit) (rest i').
Proof.
  unfold zero_prefixable_int, digit. intro H. apply unchecked_inv in H as [H _].
  apply taken_inv in H as (y & H & Es).
  apply (digits_us_sound _ _ DIGIT_ok digit_class_digit _ _ DIGIT_ok) in H as (b & t & v & Hb & St & S & Hs).
  rewrite (splits_taken _ _ _ S) in Es. subst u. split; [exact S|]. split; [|exact Hs].
  exists ([b] ++ v). exists [b], [b], t, v. repeat split; [exists b; auto|exact St].
Qed.

Lemma zpi_fails i : stops Abnf.digit (rest i) -> fails zero_prefixable_int i.
Proof.
  intro H. unfold zero_prefixable_int, digit. apply unchecked_fails, taken_fails.
  apply (digits_us_fails _ _ _ DIGIT_ok). exact H.
Qed.

(* ---- frac = decimal-point zero-prefixable-int -------------------------------------------------------- *)
Lemma frac_complete i fr frd r :
  frac_tok fr frd -> rest i = fr ++ r -> stops (us_or Abnf.digit) r -> frac i = Ok fr (adv fr i).
Proof.
  intros (t1 & v1 & u & ds & -> & -> & [-> ->] & Hu) H Hr.
  destruct (cat_one_star_facts _ digit_class_digit u ds Hu) as (Au & _).
  unfold frac, dot. apply unchecked_ok; [|apply utf8_ascii; cbn [app forallb]; rewrite Au; reflexivity].
  rewrite <- app_assoc in H.
  apply (taken_ok _ _ u); [|apply (splits_adv _ _ r); rewrite <- app_assoc; exact H].
  rewrite (bind_ok _ _ _ _ _ (byte_ok x2e i (u ++ r) H)).
  rewrite <- adv_adv. apply context_ok, cut_err_ok.
  apply (zpi_complete _ u ds r Hu (rest_adv _ _ _ H) Hr).
Qed.

Lemma frac_sound i s i' : frac i = Ok s i' ->
  splits i s i' /\ (exists frd, frac_tok s frd) /\ stops (us_or Abnf.digit) (rest i').
Proof.
  unfold frac, dot. intro H. apply unchecked_inv in H as [H _]. apply taken_inv in H as (y & H & Es).
  apply bind_inv in H as (x & i1 & H1 & H). apply byte_inv in H1 as [_ S1].
  apply context_inv, cut_err_inv in H. apply zpi_sound in H as (S2 & (ds & Hu) & Hs).
  pose proof (splits_trans _ _ _ _ _ S1 S2) as S. rewrite (splits_taken _ _ _ S) in Es. subst s.
  split; [exact S|]. split; [|exact Hs]. exists ([] ++ ds). exists [x2e], [], y, ds. repeat split. exact Hu.
Qed.

Lemma frac_fails i : stops (byte_eqb x2e) (rest i) -> fails frac i.
Proof.
  intro H. unfold frac, dot. apply unchecked_fails, taken_fails, bind_fails, byte_fails. exact H.
Qed.

(* ---- exp = "e" [ minus / plus ] zero-prefixable-int ------------------------------------------------------ *)
Lemma exp_unfold i :
  exp i = unchecked_utf8 16 (taken (one_of is_e ;;; opt (one_of is_sign) ;;; cut_err zero_prefixable_int)) i.
Proof. reflexivity. Qed.

Lemma exp_complete i ex e r :
  exp_tok ex e -> rest i = ex ++ r -> stops (us_or Abnf.digit) r -> exp i = Ok ex (adv ex i).
Proof.
  intros (c & sg & neg & u & ds & -> & Hc & Hs & Hu & _) H Hr.
  destruct (cat_one_star_facts _ digit_class_digit u ds Hu) as (Au & _ & _ & _ & b & t & v & Eu & _ & Hb & _).
  destruct (sign_facts sg neg Hs) as [As _].
  rewrite exp_unfold. apply unchecked_ok.
  2:{ apply utf8_ascii. cbn [forallb]. rewrite forallb_app, As, Au. destruct Hc as [-> | ->]; reflexivity. }
  change (c :: sg ++ u) with ([c] ++ sg ++ u) in *. rewrite <- !app_assoc in H.
  apply (taken_ok _ _ u); [|apply (splits_adv _ _ r); rewrite <- !app_assoc; exact H].
  assert (Ec : is_e c = true) by (destruct Hc as [-> | ->]; reflexivity).
  rewrite (bind_ok _ _ _ _ _ (one_of_ok is_e i c _ H Ec)).
  pose proof (rest_adv [c] _ _ H) as R1.
  assert (Hsg : stops is_sign (u ++ r)) by (rewrite Eu; apply digit_stops_sign; exact Hb).
  rewrite (bind_ok _ _ _ _ _ (opt_sign_complete _ sg neg _ Hs R1 Hsg)).
  pose proof (rest_adv sg _ _ R1) as R2.
  rewrite (cut_err_ok _ _ _ _ (zpi_complete _ u ds r Hu R2 Hr)). rewrite !adv_adv. reflexivity.
Qed.

Lemma is_e_cases c : is_e c = true -> c = x65 \/ c = x45.
Proof. unfold is_e. intro H. apply orb_true_iff in H as [H | H]; apply byte_eqb_eq in H; auto. Qed.

Lemma exp_sound i s i' : exp i = Ok s i' ->
  splits i s i' /\ (exists e, exp_tok s e) /\ stops (us_or Abnf.digit) (rest i').
Proof.
  rewrite exp_unfold. intro H. apply unchecked_inv in H as [H _]. apply taken_inv in H as (y & H & Es).
  apply bind_inv in H as (c & i1 & H1 & H). apply one_of_inv in H1 as [Hc S1].
  apply bind_inv in H as (o & i2 & H2 & H). apply opt_sign_sound in H2 as (sg & neg & Hs & S2 & _).
  apply cut_err_inv, zpi_sound in H as (S3 & (ds & Hu) & Hst).
  pose proof (splits_trans _ _ _ _ _ S1 (splits_trans _ _ _ _ _ S2 S3)) as S.
  rewrite (splits_taken _ _ _ S) in Es. subst s. split; [exact S|]. split; [|exact Hst].
  exists (signed neg (horner 10 ds)). exists c, sg, neg, y, ds. split; [reflexivity|].
  split; [apply is_e_cases; exact Hc|auto].
Qed.

Lemma exp_fails i : stops is_e (rest i) -> fails exp i.
Proof.
  intro H. unfold fails. rewrite exp_unfold. apply unchecked_fails, taken_fails, bind_fails, one_of_fails. exact H.
Qed.

(* ---- the decimal forms of float:  dec-int ( exp / frac [ exp ] ) ---------------------------------------------- *)
(* parts of a decimal float literal: sign, integer digits, fraction digits, optional exponent *)
Definition float_parts (s : bytes) (neg : bool) (ipd frd : bytes) (eo : option Z) : Prop :=
  exists sg ip fr ex, s = sg ++ ip ++ fr ++ ex /\ sign sg neg /\ unsigned_dec_int ip ipd
    /\ ((fr = [] /\ frd = []) \/ frac_tok fr frd)
    /\ match eo with None => ex = [] | Some e => exp_tok ex e end
    /\ (fr = [] -> eo <> None).

Definition fval_of (neg : bool) (ipd frd : bytes) (eo : option Z) : fval :=
  FDec neg (horner 10 (ipd ++ frd))
       ((match eo with Some e => e | None => 0 end) - Z.of_nat (length frd))%Z.

Lemma float_parts_tok s neg ipd frd eo : float_parts s neg ipd frd eo -> float_tok s (fval_of neg ipd frd eo).
Proof.
  intros (sg & ip & fr & ex & -> & Hs & Hi & Hf & He & Hne). unfold fval_of.
  destruct Hf as [[-> ->] | Hf]; destruct eo as [e|].
  - rewrite app_nil_r. cbn [app length]. replace (e - Z.of_nat 0)%Z with e by lia.
    apply float_exp; assumption.
  - exfalso. apply Hne; reflexivity.
  - apply float_frac_exp; assumption.
  - subst ex. rewrite app_nil_r. replace (0 - Z.of_nat (length frd))%Z with (- Z.of_nat (length frd))%Z by lia.
    apply float_frac; assumption.
Qed.

Lemma frac_tok_nonempty fr frd : frac_tok fr frd -> fr <> [].
Proof. intros (t1 & v1 & u & ds & -> & _ & [-> _] & _). discriminate. Qed.

Lemma tok_float_parts s neg m e : float_tok s (FDec neg m e) ->
  exists ipd frd eo, float_parts s neg ipd frd eo /\ FDec neg m e = fval_of neg ipd frd eo.
Proof.
  intro H. inversion H as [sg n ip ipd ex e0 Hs Hi He | sg n ip ipd fr frd Hs Hi Hf
                          | sg n ip ipd fr frd ex e0 Hs Hi Hf He | |]; subst.
  - exists ipd, [], (Some e). split.
    + exists sg, ip, [], ex. cbn [app]. repeat split; auto. discriminate.
    + unfold fval_of. rewrite app_nil_r. cbn [length]. f_equal; lia.
  - exists ipd, frd, None. split.
    + exists sg, ip, fr, []. rewrite app_nil_r. repeat split; auto.
      intro E. destruct (frac_tok_nonempty _ _ Hf E).
    + unfold fval_of. f_equal; lia.
  - exists ipd, frd, (Some e0). split.
    + exists sg, ip, fr, ex. repeat split; auto. discriminate.
    + reflexivity.
Qed.

(* ---- float_ recognises exactly these shapes ------------------------------------------------------------------------ *)
Definition float_tail : parser unit := pvoid exp <|> (frac ;;; pvoid (opt exp)).

Lemma float__unfold i : float_ i = unchecked_utf8 17 (taken (dec_int ;;; float_tail)) i.
Proof. reflexivity. Qed.

Lemma exp_tok_head ex e : exp_tok ex e -> exists c t, ex = c :: t /\ is_e c = true /\ forallb ascii ex = true.
Proof.
  intros (c & sg & neg & u & ds & -> & Hc & Hs & Hu & _). exists c, (sg ++ u).
  destruct (cat_one_star_facts _ digit_class_digit u ds Hu) as (Au & _). destruct (sign_facts sg neg Hs) as [As _].
  split; [reflexivity|]. cbn [forallb]. rewrite forallb_app, As, Au. destruct Hc as [-> | ->]; auto.
Qed.

Lemma frac_tok_head fr frd : frac_tok fr frd -> exists t, fr = x2e :: t /\ forallb ascii fr = true.
Proof.
  intros (t1 & v1 & u & ds & -> & _ & [-> _] & Hu). exists u.
  destruct (cat_one_star_facts _ digit_class_digit u ds Hu) as (Au & _).
  split; [reflexivity|]. cbn [app forallb]. rewrite Au. reflexivity.
Qed.

Lemma e_stops_digit c t : is_e c = true -> stops (us_or Abnf.digit) (c :: t).
Proof. intro H. apply is_e_cases in H as [-> | ->]; reflexivity. Qed.

Lemma float__complete i s neg ipd frd eo r :
  float_parts s neg ipd frd eo -> rest i = s ++ r -> stops (us_or Abnf.digit) r ->
  (eo = None -> stops is_e r) -> float_ i = Ok s (adv s i).
Proof.
  intros (sg & ip & fr & ex & -> & Hs & Hi & Hf & He & Hne) H Hr Hre.
  destruct (sign_facts sg neg Hs) as [As _]. destruct (unsigned_facts ip ipd Hi) as (Ai & _).
  assert (Ax : forallb ascii ex = true /\ (ex = [] \/ exists c t, ex = c :: t /\ is_e c = true)).
  { destruct eo as [e|]; [|subst ex; auto]. destruct (exp_tok_head ex e He) as (c & t & E & Hc & A). eauto 6. }
  destruct Ax as [Ax Hex].
  assert (Af : forallb ascii fr = true).
  { destruct Hf as [[-> _] | Hf]; [reflexivity|]. destruct (frac_tok_head _ _ Hf) as (t & _ & A). exact A. }
  rewrite float__unfold. apply unchecked_ok; [|apply utf8_ascii; rewrite !forallb_app, As, Ai, Af, Ax; reflexivity].
  apply (taken_ok _ _ tt); [|apply (splits_adv _ _ r H)].
  assert (H' : rest i = (sg ++ ip) ++ fr ++ ex ++ r) by (rewrite H; rewrite <- !app_assoc; reflexivity).
  (* what follows the integer part cannot continue it *)
  assert (Hstop : stops (us_or Abnf.digit) (fr ++ ex ++ r)).
  { destruct Hf as [[-> _] | Hf].
    - destruct Hex as [-> | (c & t & -> & Hc)]; [exfalso; destruct eo; [|apply Hne; reflexivity]|].
      + destruct (exp_tok_head _ _ He) as (c & t & E & _). discriminate.
      + apply e_stops_digit. exact Hc.
    - destruct (frac_tok_head _ _ Hf) as (t & -> & _). reflexivity. }
  rewrite (bind_ok _ _ _ _ _ (dec_int_complete i sg neg ip ipd _ Hs Hi H' Hstop)).
  pose proof (rest_adv _ _ _ H') as R. unfold float_tail.
  destruct Hf as [[-> _] | Hf].
  - (* exponent only *)
    destruct eo as [e|]; [|exfalso; apply Hne; reflexivity]. cbn [app] in *.
    rewrite (alt_ok _ _ _ _ _ (pvoid_ok _ _ _ _ (exp_complete _ ex e r He R Hr))).
    rewrite adv_adv. rewrite <- app_assoc. reflexivity.
  - (* fraction, then maybe an exponent *)
    destruct (frac_tok_head _ _ Hf) as (t & Efr & _).
    rewrite alt_fails_l by (apply pvoid_fails, exp_fails; rewrite R, Efr; reflexivity).
    assert (Hstop2 : stops (us_or Abnf.digit) (ex ++ r)).
    { destruct Hex as [-> | (c & t' & -> & Hc)]; [exact Hr|apply e_stops_digit; exact Hc]. }
    rewrite (bind_ok _ _ _ _ _ (frac_complete _ fr frd _ Hf R Hstop2)).
    pose proof (rest_adv _ _ _ R) as R2.
    destruct eo as [e|].
    + rewrite (pvoid_ok _ _ _ _ (opt_ok _ _ _ _ (exp_complete _ ex e r He R2 Hr))).
      rewrite !adv_adv. rewrite <- !app_assoc. reflexivity.
    + subst ex. cbn [app] in R2. rewrite (pvoid_ok _ _ None (adv fr (adv (sg ++ ip) i))).
      * rewrite !adv_adv. rewrite app_nil_r, <- !app_assoc. reflexivity.
      * apply opt_fails, exp_fails. rewrite R2. apply Hre. reflexivity.
Qed.

Lemma float__sound i s i' : float_ i = Ok s i' ->
  splits i s i' /\ exists neg ipd frd eo, float_parts s neg ipd frd eo.
Proof.
  rewrite float__unfold. intro H. apply unchecked_inv in H as [H _]. apply taken_inv in H as (y & H & Es).
  apply bind_inv in H as (s1 & i1 & H1 & H). apply dec_int_sound in H1 as (S1 & sg & neg & ip & ipd & -> & Hs & Hi).
  unfold float_tail in H. apply alt_inv in H as [H | [_ H]].
  - apply pvoid_inv in H as (ex & H). apply exp_sound in H as (S2 & (e & He) & _).
    pose proof (splits_trans _ _ _ _ _ S1 S2) as S. rewrite (splits_taken _ _ _ S) in Es. subst s.
    split; [exact S|]. exists neg, ipd, [], (Some e). exists sg, ip, [], ex. cbn [app].
    rewrite <- app_assoc. repeat split; auto. discriminate.
  - apply bind_inv in H as (fr & i2 & H2 & H). apply frac_sound in H2 as (S2 & (frd & Hf) & _).
    apply pvoid_inv in H as (o & H). apply opt_inv in H as [(ex & -> & H) | (-> & -> & _)].
    + apply exp_sound in H as (S3 & (e & He) & _).
      pose proof (splits_trans _ _ _ _ _ S1 (splits_trans _ _ _ _ _ S2 S3)) as S.
      rewrite (splits_taken _ _ _ S) in Es. subst s. split; [exact S|].
      exists neg, ipd, frd, (Some e). exists sg, ip, fr, ex. rewrite <- app_assoc. repeat split; auto. discriminate.
    + pose proof (splits_trans _ _ _ _ _ S1 S2) as S. rewrite (splits_taken _ _ _ S) in Es. subst s.
      split; [exact S|]. exists neg, ipd, frd, None. exists sg, ip, fr, []. rewrite app_nil_r, <- app_assoc.
      repeat split; auto. intro E. destruct (frac_tok_nonempty _ _ Hf E).
Qed.

(* float_ fails without commitment when no digit follows the optional sign (inf, nan, ...) *)
Lemma float__fails i sg neg r : sign sg neg -> rest i = sg ++ r -> stops is_sign r -> stops Abnf.digit r ->
  fails float_ i.
Proof.
  intros Hs H Hr Hd. unfold fails. rewrite float__unfold. apply unchecked_fails, taken_fails, bind_fails.
  apply (dec_int_fails i sg neg r Hs H Hr Hd).
Qed.

(* ---- the exact decimal: fdec_of_text on the recognised text ---------------------------------------------------- *)
Definition strip_sign (s : bytes) : bool * bytes :=
  match s with
  | b :: t => if byte_eqb b plus then (false, t) else if byte_eqb b dash then (true, t) else (false, s)
  | [] => (false, s)
  end.

Definition e10_of (ex : option bytes) : Z :=
  match ex with
  | None => 0%Z
  | Some t => match t with
              | b :: u => if byte_eqb b plus then Z.of_N (dec_value u)
                          else if byte_eqb b dash then (- Z.of_N (dec_value u))%Z
                          else Z.of_N (dec_value t)
              | [] => 0%Z
              end
  end.

Lemma fdec_unfold s :
  fdec_of_text s =
  let '(neg, body) := strip_sign s in
  let '(mant, ex) := split_at_byte is_e body in
  let '(ip, fp) := split_at_byte (byte_eqb dot) mant in
  let fp := match fp with Some f => f | None => [] end in
  FDec neg (dec_value (ip ++ fp)) (e10_of ex - Z.of_nat (length fp))%Z.
Proof. reflexivity. Qed.

Lemma split_at_byte_exact f a r :
  forallb (fun b => negb (f b)) a = true -> match r with [] => True | b :: _ => f b = true end ->
  split_at_byte f (a ++ r) = (a, match r with [] => None | _ :: t => Some t end).
Proof.
  intros Ha Hr. unfold split_at_byte. rewrite (span_while_exact _ a r Ha).
  - destruct r; reflexivity.
  - destruct r; [exact I|]. cbn [stops]. rewrite Hr. reflexivity.
Qed.

Lemma strip_sign_ok sg neg d t : sign sg neg -> Abnf.digit d = true -> strip_sign (sg ++ d :: t) = (neg, d :: t).
Proof.
  intros [[-> ->] | [[-> ->] | [-> ->]]] Hd; cbn [app strip_sign]; [|reflexivity|reflexivity].
  destruct (digit_not_sign d Hd) as [-> ->]. reflexivity.
Qed.

Lemma e10_signed sg neg ds : sign sg neg -> ds <> [] -> forallb Abnf.digit ds = true ->
  e10_of (Some (sg ++ ds)) = signed neg (horner 10 ds).
Proof.
  intros [[-> ->] | [[-> ->] | [-> ->]]] Hne Hd; cbn [app e10_of signed].
  - destruct ds as [|b u]; [congruence|]. pose proof Hd as Hd'. cbn [forallb] in Hd'. apply andb_true_iff in Hd' as [Hb _].
    destruct (digit_not_sign b Hb) as [-> ->]. rewrite dec_value_horner by exact Hd. reflexivity.
  - change (byte_eqb x2b plus) with true. cbv iota. rewrite dec_value_horner by exact Hd. reflexivity.
  - change (byte_eqb x2d plus) with false. change (byte_eqb x2d dash) with true. cbv iota.
    rewrite dec_value_horner by exact Hd. reflexivity.
Qed.

Lemma digit_not_e_dot b : Abnf.digit b = true -> is_e b = false /\ byte_eqb dot b = false.
Proof. unfold is_e, dot. cls. lia. Qed.

Lemma digits_no_e ds : forallb Abnf.digit ds = true -> forallb (fun b => negb (is_e b)) ds = true.
Proof. apply forallb_impl. intros b H. destruct (digit_not_e_dot b H) as [-> _]. reflexivity. Qed.
Lemma digits_no_dot ds : forallb Abnf.digit ds = true -> forallb (fun b => negb (byte_eqb dot b)) ds = true.
Proof. apply forallb_impl. intros b H. destruct (digit_not_e_dot b H) as [_ ->]. reflexivity. Qed.

(* the cleaned text of each part *)
Lemma frac_clean fr frd : frac_tok fr frd ->
  remove_us fr = x2e :: frd /\ forallb Abnf.digit frd = true.
Proof.
  intros (t1 & v1 & u & ds & -> & -> & [-> ->] & Hu).
  destruct (cat_one_star_facts _ digit_class_digit u ds Hu) as (_ & Ad & Ar & _).
  rewrite remove_us_app, Ar. auto.
Qed.

Lemma exp_clean ex e : exp_tok ex e -> exists c sg neg ds,
  remove_us ex = c :: sg ++ ds /\ is_e c = true /\ sign sg neg /\ ds <> [] /\ forallb Abnf.digit ds = true
  /\ e = signed neg (horner 10 ds).
Proof.
  intros (c & sg & neg & u & ds & -> & Hc & Hs & Hu & ->).
  destruct (cat_one_star_facts _ digit_class_digit u ds Hu) as (_ & Ad & Ar & Ane & _).
  destruct (sign_facts sg neg Hs) as [_ Rs].
  exists c, sg, neg, ds. change (c :: sg ++ u) with ([c] ++ sg ++ u). rewrite !remove_us_app, Rs, Ar.
  assert (Ec : is_e c = true) by (destruct Hc as [-> | ->]; reflexivity).
  split; [destruct Hc as [-> | ->]; reflexivity|auto].
Qed.

Theorem fdec_exact s neg ipd frd eo :
  float_parts s neg ipd frd eo -> fdec_of_text (remove_us s) = fval_of neg ipd frd eo.
Proof.
  intros (sg & ip & fr & ex & -> & Hs & Hi & Hf & He & Hne).
  destruct (sign_facts sg neg Hs) as [_ Rs].
  destruct (unsigned_facts ip ipd Hi) as (_ & Ai & Ri & Ine & _).
  rewrite !remove_us_app, Rs, Ri.
  (* the fraction part *)
  assert (F : exists fr', remove_us fr = fr' /\ forallb Abnf.digit frd = true
                          /\ ((fr' = [] /\ frd = []) \/ fr' = x2e :: frd)).
  { destruct Hf as [[-> ->] | Hf]; [exists []; auto|]. destruct (frac_clean _ _ Hf) as [R A]. eauto 6. }
  destruct F as (fr' & -> & Afr & Hfr').
  (* the exponent part *)
  assert (X : exists ex', remove_us ex = ex' /\ match ex' with [] => True | b :: _ => is_e b = true end
                          /\ e10_of (match ex' with [] => None | _ :: t => Some t end)
                             = match eo with Some e => e | None => 0%Z end).
  { destruct eo as [e|].
    - destruct (exp_clean _ _ He) as (c & sg2 & neg2 & ds & R & Hc & Hs2 & Dne & Ad & ->).
      exists (c :: sg2 ++ ds). split; [exact R|]. split; [exact Hc|]. apply e10_signed; assumption.
    - subst ex. exists []. auto. }
  destruct X as (ex' & -> & Hex & He10).
  destruct ipd as [|d ipd']; [congruence|]. pose proof Ai as Ai'. cbn [forallb] in Ai'. apply andb_true_iff in Ai' as [Hd _].
  rewrite fdec_unfold. cbn [app]. rewrite (strip_sign_ok sg neg d _ Hs Hd).
  change (d :: ipd' ++ fr' ++ ex') with ((d :: ipd') ++ fr' ++ ex'). rewrite app_assoc.
  rewrite split_at_byte_exact; [|
    rewrite forallb_app, (digits_no_e _ Ai); destruct Hfr' as [[-> _] | ->]; [reflexivity|];
    cbn [forallb]; rewrite (digits_no_e _ Afr); reflexivity | exact Hex ].
  unfold fval_of.
  destruct Hfr' as [[-> ->] | ->].
  - rewrite app_nil_r. rewrite <- (app_nil_r (d :: ipd')) at 1.
    rewrite split_at_byte_exact; [|apply digits_no_dot; exact Ai|exact I]. rewrite <- He10, app_nil_r.
    rewrite dec_value_horner by exact Ai. reflexivity.
  - rewrite split_at_byte_exact; [|apply digits_no_dot; exact Ai|reflexivity]. rewrite <- He10.
    rewrite dec_value_horner; [reflexivity|]. rewrite forallb_app, Ai, Afr. reflexivity.
Qed.

(* ---- float ---------------------------------------------------------------------------------------------------------- *)
Lemma float_of_parts s neg ipd frd eo : float_parts s neg ipd frd eo ->
  float_of s = match fval_of neg ipd frd eo with
               | FDec n m e => if overflows m e then SubCut err0 else SubOk (FDec n m e)
               | v => SubOk v
               end.
Proof.
  intro H. unfold float_of. rewrite (fdec_exact s neg ipd frd eo H). unfold fval_of.
  destruct float_guard_ok as [G1 G2]. rewrite G1, G2.
  destruct (overflows _ _); destruct neg; reflexivity.
Qed.

Definition special_tok (t : bytes) (f : fval) : Prop :=
  exists sg neg, sign sg neg /\ ((t = sg ++ t_inf /\ f = FInf neg) \/ (t = sg ++ t_nan /\ f = FNan neg)).

Lemma special_float_complete i t f r : special_tok t f -> rest i = t ++ r -> special_float i = Ok f (adv t i).
Proof.
  intros (sg & neg & Hs & Ht) H. unfold special_float. fold is_sign.
  assert (E : exists w v, t = sg ++ w /\ (inf <|> nan) (adv sg i) = Ok v (adv w (adv sg i))
                          /\ stops is_sign (w ++ r) /\ f = if neg then fneg v else v).
  { destruct Ht as [[-> ->] | [-> ->]]; rewrite <- app_assoc in H; pose proof (rest_adv _ _ _ H) as R.
    - exists t_inf, (FInf false). split; [reflexivity|]. split; [|split; [reflexivity|destruct neg; reflexivity]].
      apply alt_ok. unfold inf. apply (pvalue_ok _ _ _ INF). apply (lit_ok INF _ r R).
    - exists t_nan, (FNan false). split; [reflexivity|]. split; [|split; [reflexivity|destruct neg; reflexivity]].
      rewrite alt_fails_l.
      + unfold nan. apply (pvalue_ok _ _ _ NAN). apply (lit_ok NAN _ r R).
      + unfold inf. apply pvalue_fails, lit_fails. intros r' E. rewrite R in E. discriminate. }
  destruct E as (w & v & -> & Ew & Hw & ->). rewrite <- app_assoc in H.
  change (fun b : byte => byte_eqb b plus || byte_eqb b dash) with is_sign.
  rewrite (bind_ok _ _ _ _ _ (opt_sign_complete i sg neg _ Hs H Hw)).
  rewrite (bind_ok _ _ _ _ _ Ew). rewrite adv_adv.
  destruct Hs as [[-> ->] | [[-> ->] | [-> ->]]]; reflexivity.
Qed.

Lemma special_float_sound i f i' : special_float i = Ok f i' -> exists t, special_tok t f /\ splits i t i'.
Proof.
  unfold special_float. change (fun b : byte => byte_eqb b plus || byte_eqb b dash) with is_sign.
  intro H. apply bind_inv in H as (o & i1 & H1 & H). apply opt_sign_sound in H1 as (sg & neg & Hs & S1 & ->).
  apply bind_inv in H as (v & i2 & H2 & H).
  assert (E : exists w, splits i1 w i2 /\ ((w = t_inf /\ v = FInf false) \/ (w = t_nan /\ v = FNan false))).
  { apply alt_inv in H2 as [H2 | [_ H2]].
    - unfold inf in H2. apply pvalue_inv in H2 as (-> & a & H2). apply lit_inv in H2 as [_ S]. exists t_inf. auto.
    - unfold nan in H2. apply pvalue_inv in H2 as (-> & a & H2). apply lit_inv in H2 as [_ S]. exists t_nan. auto. }
  destruct E as (w & S2 & Hw). pose proof (splits_trans _ _ _ _ _ S1 S2) as S.
  exists (sg ++ w). split; [|
    destruct Hs as [[-> ->] | [[-> ->] | [-> ->]]]; cbn in H; apply ret_inv in H as [_ ->]; exact S].
  exists sg, neg. split; [exact Hs|].
  destruct Hs as [[-> ->] | [[-> ->] | [-> ->]]]; cbn in H; apply ret_inv in H as [-> _];
    destruct Hw as [[-> ->] | [-> ->]]; auto.
Qed.

Lemma special_tok_float t f : special_tok t f -> float_tok t f.
Proof.
  intros (sg & neg & Hs & [[-> ->] | [-> ->]]); [apply float_inf|apply float_nan]; exact Hs.
Qed.

Lemma float_tok_cases t f : float_tok t f ->
  (exists neg m e, f = FDec neg m e) \/ special_tok t f.
Proof.
  intro H. inversion H; subst; try (left; eauto; fail); right.
  - exists s, neg. auto.
  - exists s, neg. auto.
Qed.

(* no overflow: the guard of `float` *)
Definition finite (f : fval) : Prop :=
  match f with FDec _ m e => overflows m e = false | _ => True end.

Theorem float_complete i t f r : float_tok t f -> finite f -> rest i = t ++ r ->
  stops (us_or Abnf.digit) r -> stops is_e r -> float i = Ok f (adv t i).
Proof.
  intros Ht Hfin H Hr Hre. unfold float. apply context_ok.
  destruct (float_tok_cases t f Ht) as [(neg & m & e & ->) | Hsp].
  - destruct (tok_float_parts t neg m e Ht) as (ipd & frd & eo & Hp & Ev).
    apply alt_ok. apply (and_then_ok _ _ _ t).
    + apply (float__complete i t neg ipd frd eo r Hp H Hr). intros _. exact Hre.
    + rewrite (float_of_parts t neg ipd frd eo Hp). rewrite <- Ev. cbn [finite] in Hfin. rewrite Hfin. reflexivity.
  - rewrite alt_fails_l; [apply (special_float_complete i t f r Hsp H)|].
    apply and_then_fails. destruct Hsp as (sg & neg & Hs & Ht').
    destruct Ht' as [[-> _] | [-> _]]; rewrite <- app_assoc in H;
      apply (float__fails i sg neg _ Hs H); reflexivity.
Qed.

(* an overflowing decimal is refused with a committed error *)
Theorem float_overflow i t neg m e r : float_tok t (FDec neg m e) -> overflows m e = true -> rest i = t ++ r ->
  stops (us_or Abnf.digit) r -> stops is_e r -> exists er j, float i = Cut er j.
Proof.
  intros Ht Hov H Hr Hre. destruct (tok_float_parts t neg m e Ht) as (ipd & frd & eo & Hp & Ev).
  unfold float, context, alt, and_then.
  rewrite (float__complete i t neg ipd frd eo r Hp H Hr (fun _ => Hre)).
  rewrite (float_of_parts t neg ipd frd eo Hp). rewrite <- Ev, Hov. eauto.
Qed.

Theorem float_sound i f i' : float i = Ok f i' -> exists t, float_tok t f /\ finite f /\ splits i t i'.
Proof.
  unfold float. intro H. apply context_inv, alt_inv in H as [H | [_ H]].
  - apply and_then_inv in H as (s & H & Hv). apply float__sound in H as (S & neg & ipd & frd & eo & Hp).
    rewrite (float_of_parts s neg ipd frd eo Hp) in Hv. pose proof (float_parts_tok _ _ _ _ _ Hp) as Ht.
    unfold fval_of in *. destruct (overflows _ _) eqn:Ov; [discriminate|]. injection Hv as <-.
    exists s. split; [exact Ht|]. split; [exact Ov|exact S].
  - apply special_float_sound in H as (t & Hsp & S). exists t. split; [apply special_tok_float; exact Hsp|].
    split; [|exact S]. destruct Hsp as (sg & neg & _ & [[_ ->] | [_ ->]]); exact I.
Qed.

(* the shape parser with the exact decimal it denotes (the text handed to str::parse::<f64>) *)
Theorem float__exact i s i' : float_ i = Ok s i' ->
  splits i s i' /\ exists neg m e, float_tok s (FDec neg m e) /\ fdec_of_text (remove_us s) = FDec neg m e.
Proof.
  intro H. apply float__sound in H as (S & neg & ipd & frd & eo & Hp). split; [exact S|].
  pose proof (float_parts_tok _ _ _ _ _ Hp) as Ht. pose proof (fdec_exact _ _ _ _ _ Hp) as Hv.
  unfold fval_of in *. eauto.
Qed.

Corollary float_cut_only i er j : float i = Cut er j ->
  forall t f r, float_tok t f -> rest i = t ++ r -> stops (us_or Abnf.digit) r -> stops is_e r -> ~ finite f.
Proof.
  intros H t f r Ht E Hr Hre Hfin. rewrite (float_complete i t f r Ht Hfin E Hr Hre) in H. discriminate.
Qed.
