(* Proofs/SpansUtf8.v — C14, character boundaries, part 1: every parser consumes whole characters.

     uP p   if the remaining input is well-formed UTF-8 and p succeeds, what remains after p is
            well-formed UTF-8 (so the cursor sits on a character boundary again).

   Token boundaries are ASCII delimiters or ends of UTF-8-checked chunks:
     * a parser that consumes ASCII bytes only is uP (`uP_of_ascii`, from the class judgement `monoC ascii`);
     * take_while over a class that contains every byte >= 0x80 stops before an ASCII byte or at the end:
       a well-formed text cut before a non-continuation byte leaves a well-formed text (`valid_suffix`);
     * `from_utf8(...take())` / `from_utf8_unchecked` hand over exactly the consumed text, which is checked:
       a well-formed prefix of a well-formed text leaves a well-formed text (`valid_cancel`). *)
From TV Require Import Base.Prelude Base.Utf8 Base.Winnow.
From TV Require Import Model.Strings.
From TV Require Import Proofs.LexEquivBase.
From TV Require Import Proofs.NoPanicBase Proofs.NoPanicLex.
Require Import Lia ZifyBool ZifyN ZifyNat.

(* ---- well-formed texts ------------------------------------------------------------------------------------ *)
Lemma cont_not_ascii b : is_cont b = true -> ascii b = false.
Proof. unfold is_cont, ascii. lia. Qed.

Definition starts_char (r : bytes) : Prop := match r with [] => True | b :: _ => is_cont b = false end.

(* a well-formed text is empty, or one character and a well-formed text; a character is a byte that is not a
   continuation byte followed by continuation bytes only, and can be dropped in front of any text *)
Lemma valid_uncons s : utf8_valid_b s = true ->
  s = [] \/ exists b c s', s = b :: c ++ s' /\ is_cont b = false /\ forallb is_cont c = true /\ utf8_valid_b s' = true
                           /\ forall r, utf8_valid_b (b :: c ++ r) = utf8_valid_b r.
Proof.
  intro V. destruct (utf8_valid_cases _ V) as [E | [(b & s' & E & Hb & V') | [(b0 & b1 & s' & E & H0 & H1 & V')
    | [(b0 & b1 & b2 & s' & E & H0 & H1 & H2 & V') | (b0 & b1 & b2 & b3 & s' & E & H0 & H1 & H2 & H3 & V')]]]];
    [left; exact E|right..].
  - exists b, [], s'. repeat split; auto; [unfold is_cont, LexEquivBase.ascii in *; lia|intro r; apply utf8_cons_ascii, Hb].
  - exists b0, [b1], s'. cbn [forallb app]. rewrite H1. repeat split; auto; [unfold is_cont, inr in *; lia|].
    intro r. apply utf8_seq2; assumption.
  - pose proof (second3_cont _ _ H1) as C1. exists b0, [b1; b2], s'. cbn [forallb app]. rewrite C1, H2.
    repeat split; auto; [unfold is_cont, inr in *; lia|]. intro r. apply utf8_seq3; assumption.
  - pose proof (second4_cont _ _ H1) as C1. exists b0, [b1; b2; b3], s'. cbn [forallb app]. rewrite C1, H2, H3.
    repeat split; auto; [unfold is_cont, inr in *; lia|]. intro r. apply utf8_seq4; assumption.
Qed.

Lemma valid_starts_char r : utf8_valid_b r = true -> starts_char r.
Proof. intro V. destruct (valid_uncons _ V) as [->|(b & c & s' & -> & Hb & _)]; [exact I|exact Hb]. Qed.

(* a well-formed prefix of a well-formed text leaves a well-formed text *)
Lemma valid_cancel t r : utf8_valid_b t = true -> utf8_valid_b (t ++ r) = true -> utf8_valid_b r = true.
Proof. intros Vt V. rewrite utf8_app in V by exact Vt. exact V. Qed.

(* a cut that is not in front of a continuation byte does not fall inside a run of continuation bytes *)
Lemma cont_run_prefix : forall c a r s', a ++ r = c ++ s' -> forallb is_cont c = true -> starts_char r ->
  exists a', a = c ++ a' /\ a' ++ r = s'.
Proof.
  induction c as [|y c IH]; intros a r s' E Hc Sr; [exists a; auto|].
  cbn [forallb] in Hc. apply andb_true_iff in Hc as [Hy Hc]. destruct a as [|z a]; cbn [app] in E.
  - subst r. cbn [starts_char] in Sr. congruence.
  - inversion E; subst z. destruct (IH a r s' H1 Hc Sr) as (a' & -> & E'). exists a'. auto.
Qed.

(* a well-formed text cut before a non-continuation byte (or at its end) leaves a well-formed text *)
Lemma valid_suffix_n : forall n a r, length a <= n -> utf8_valid_b (a ++ r) = true -> starts_char r -> utf8_valid_b r = true.
Proof.
  induction n as [|n IH]; intros a r Hn V S.
  - destruct a; [exact V|cbn in Hn; lia].
  - destruct a as [|x a]; [exact V|].
    destruct (valid_uncons _ V) as [E|(b & c & s' & E & _ & Hc & V' & _)]; [discriminate E|].
    cbn [app] in E. inversion E; subst x. destruct (cont_run_prefix c a r s' H1 Hc S) as (a' & -> & <-).
    apply (IH a' r); [|exact V'|exact S]. cbn [length] in Hn. rewrite app_length in Hn. lia.
Qed.
Lemma valid_suffix a r : utf8_valid_b (a ++ r) = true -> starts_char r -> utf8_valid_b r = true.
Proof. apply (valid_suffix_n (length a)). lia. Qed.

(* ---- the judgement ------------------------------------------------------------------------------------------ *)
Definition vin (i : input) : Prop := utf8_valid_b (rest i) = true.
Definition uP {A} (p : parser A) : Prop := forall i a i', vin i -> p i = Ok a i' -> vin i'.

Lemma uP_of_ascii {A} (p : parser A) : monoC ascii p -> uP p.
Proof.
  intros Hp i a i' V E. apply Hp in E as (t & R & _ & _ & F). unfold vin in *. rewrite R, utf8_app_ascii in V by exact F. exact V.
Qed.
(* the value handed over is exactly the consumed text, and it is well-formed *)
Definition hands_over (p : parser bytes) : Prop :=
  forall i b i', p i = Ok b i' -> exists pre, forallb ascii pre = true /\ rest i = pre ++ b ++ rest i'.
Lemma uP_checked (p : parser bytes) :
  hands_over p -> (forall i b i', p i = Ok b i' -> utf8_valid_b b = true) -> uP p.
Proof.
  intros Hh Hv i b i' V E. destruct (Hh _ _ _ E) as (pre & F & R). unfold vin in *.
  rewrite R, utf8_app_ascii in V by exact F. eapply valid_cancel; [eapply Hv, E|exact V].
Qed.
Lemma uP_unchecked_hands w (p : parser bytes) : hands_over p -> uP (unchecked_utf8 w p).
Proof.
  intro Hh. apply uP_checked.
  - intros i b i' E. unfold unchecked_utf8 in E. destruct (p i) as [x j|? ?|? ?|?] eqn:E1; try discriminate.
    destruct (utf8_valid_b x); inversion E; subst. eapply Hh, E1.
  - intros i b i' E. unfold unchecked_utf8 in E. destruct (p i) as [x j|? ?|? ?|?] eqn:E1; try discriminate.
    destruct (utf8_valid_b x) eqn:V; inversion E; subst. exact V.
Qed.
Lemma uP_from_utf8_hands (p : parser bytes) : hands_over p -> uP (from_utf8 p).
Proof.
  intro Hh. apply uP_checked.
  - intros i b i' E. unfold from_utf8 in E. apply try_map_inv in E as (x & E & G). destruct (utf8_valid_b x); inversion G; subst.
    eapply Hh, E.
  - intros i b i' E. unfold from_utf8 in E. apply try_map_inv in E as (x & E & G). destruct (utf8_valid_b x) eqn:V; inversion G; subst.
    exact V.
Qed.
Lemma hands_take_while m n f : hands_over (take_while_mn m n f).
Proof. intros i b i' E. apply take_while_inv in E as (R & _). exists []. split; [reflexivity|exact R]. Qed.
Lemma hands_taken {A} (p : parser A) : mono p -> hands_over (taken p).
Proof.
  intros Mp i b i' E. unfold taken in E. destruct (p i) as [x j|? ?|? ?|?] eqn:E1; try discriminate. inversion E; subst.
  apply Mp in E1 as (t & R & P & _). exists []. split; [reflexivity|]. cbn [app].
  assert (F : firstn (N.to_nat (pos i' - pos i)) (rest i) = t).
  { rewrite R, P. replace (N.to_nat (pos i + N.of_nat (length t) - pos i)) with (length t) by lia.
    rewrite firstn_app, Nat.sub_diag, firstn_all. cbn [firstn]. apply app_nil_r. }
  rewrite F. exact R.
Qed.
Lemma hands_verify f (p : parser bytes) : hands_over p -> hands_over (verify f p).
Proof.
  intros Hh i b i' E. unfold verify in E. destruct (p i) as [x j|? ?|? ?|?] eqn:E1; try discriminate.
  destruct (f x); inversion E; subst. eapply Hh, E1.
Qed.
Lemma hands_preceded_lit l (p : parser bytes) : forallb ascii l = true -> hands_over p -> hands_over (preceded (lit l) p).
Proof.
  intros Hl Hh i b i' E. unfold preceded in E. apply bind_inv in E as (x & j & E0 & E). apply lit_inv in E0 as (_ & _ & R).
  destruct (Hh _ _ _ E) as (pre & F & R2). exists (l ++ pre). split; [rewrite forallb_app, Hl, F; reflexivity|].
  rewrite R, R2, app_assoc. reflexivity.
Qed.

(* ---- combinators ------------------------------------------------------------------------------------------------ *)
Section Combs.
  Context {A B : Type}.
  Lemma uP_ret (a : A) : uP (ret a).
  Proof. intros i x i' V E. apply ret_inv in E as [_ ->]. exact V. Qed.
  Lemma uP_fail : uP (@fail A). Proof. intros i x i' V E. discriminate. Qed.
  Lemma uP_const_panic s : uP (fun _ : input => @Panic A s). Proof. intros i x i' V E. discriminate. Qed.
  Lemma uP_const_cut e j : uP (fun _ : input => @Cut A e j). Proof. intros i x i' V E. discriminate. Qed.
  Lemma uP_bind (p : parser A) (f : A -> parser B) : uP p -> (forall a, uP (f a)) -> uP (bind p f).
  Proof. intros Hp Hf i b i' V E. apply bind_inv in E as (a & j & E1 & E2). eapply Hf; [|exact E2]. eapply Hp; eauto. Qed.
  Lemma uP_pmap (g : A -> B) (p : parser A) : uP p -> uP (pmap g p).
  Proof. intros Hp i b i' V E. apply pmap_inv in E as (a & E & _). eapply Hp; eauto. Qed.
  Lemma uP_try_map (g : A -> tm B) (p : parser A) : uP p -> uP (try_map g p).
  Proof. intros Hp i b i' V E. apply try_map_inv in E as (a & E & _). eapply Hp; eauto. Qed.
  Lemma uP_verify_map (g : A -> option B) (p : parser A) : uP p -> uP (verify_map g p).
  Proof.
    intros Hp i b i' V E. unfold verify_map in E. destruct (p i) as [x j|? ?|? ?|?] eqn:E1; try discriminate.
    destruct (g x); inversion E; subst. eapply Hp; eauto.
  Qed.
  Lemma uP_and_then (p : parser A) (g : A -> sub B) : uP p -> uP (and_then p g).
  Proof.
    intros Hp i b i' V E. unfold and_then in E. destruct (p i) as [x j|? ?|? ?|?] eqn:E1; try discriminate.
    destruct (g x); inversion E; subst. eapply Hp; eauto.
  Qed.
End Combs.
Section Combs1.
  Context {A : Type}.
  Lemma uP_pvalue {B} (b : B) (p : parser A) : uP p -> uP (pvalue b p). Proof. apply uP_pmap. Qed.
  Lemma uP_pvoid (p : parser A) : uP p -> uP (pvoid p). Proof. apply uP_pmap. Qed.
  Lemma uP_peek (p : parser A) : uP (peek p).
  Proof. intros i a i' V E. apply peek_inv in E as (-> & _). exact V. Qed.
  Lemma uP_opt (p : parser A) : uP p -> uP (opt p).
  Proof.
    intros Hp i a i' V E. unfold opt in E. destruct (p i) as [x j|? ?|? ?|?] eqn:E1; try discriminate; inversion E; subst;
      [eapply Hp; eauto|exact V].
  Qed.
  Lemma uP_cut_err (p : parser A) : uP p -> uP (cut_err p).
  Proof. intros Hp i a i' V E. apply cut_err_inv in E. eapply Hp; eauto. Qed.
  Lemma uP_context (p : parser A) : uP p -> uP (context p).
  Proof. intros Hp i a i' V E. apply context_inv in E. eapply Hp; eauto. Qed.
  Lemma uP_alt (p q : parser A) : uP p -> uP q -> uP (alt p q).
  Proof.
    intros Hp Hq i a i' V E. unfold alt in E. destruct (p i) eqn:E1; try discriminate.
    - eapply Hp; [exact V|]. rewrite E1. exact E.
    - eapply Hq; eauto.
  Qed.
  Lemma uP_verify f (p : parser A) : uP p -> uP (verify f p).
  Proof.
    intros Hp i a i' V E. unfold verify in E. destruct (p i) as [x j|? ?|? ?|?] eqn:E1; try discriminate.
    destruct (f x); inversion E; subst. eapply Hp; eauto.
  Qed.
  Lemma uP_span_ (p : parser A) : uP p -> uP (span_ p).
  Proof. intros Hp i a i' V E. apply span_inv in E as (x & E & _). eapply Hp; eauto. Qed.
  Lemma uP_with_span (p : parser A) : uP p -> uP (with_span p).
  Proof. intros Hp i a i' V E. apply with_span_inv in E as (x & E & _). eapply Hp; eauto. Qed.
  Lemma uP_taken (p : parser A) : uP p -> uP (taken p).
  Proof.
    intros Hp i a i' V E. unfold taken in E. destruct (p i) as [x j|? ?|? ?|?] eqn:E1; try discriminate. inversion E; subst.
    eapply Hp; eauto.
  Qed.
  Lemma uP_diag (h : input -> parser A) : (forall j, uP (h j)) -> uP (fun j => h j j).
  Proof. intros H i a i' V E. eapply H; eauto. Qed.
  Lemma uP_eof : uP eof.
  Proof. intros i a i' V E. unfold eof in E. destruct (rest i); inversion E; subst. exact V. Qed.

  Lemma uP_repeat0_f (p : parser A) : uP p -> forall fuel acc, uP (repeat0_f fuel p acc).
  Proof.
    intros Hp. induction fuel as [|f IH]; intros acc i l i' V E; cbn [repeat0_f] in E; [discriminate|].
    destruct (p i) as [x j|? ?|? ?|?] eqn:E1; try discriminate.
    - destruct (Nat.eqb _ _); [discriminate|]. eapply IH; [|exact E]. eapply Hp; eauto.
    - inversion E; subst. exact V.
  Qed.
  Lemma uP_repeat0 (p : parser A) : uP p -> uP (repeat0 p).
  Proof. intros Hp i l i' V E. eapply uP_repeat0_f; eauto. Qed.
  Lemma uP_repeat1 (p : parser A) : uP p -> uP (repeat1 p).
  Proof.
    intros Hp i l i' V E. unfold repeat1 in E. destruct (p i) as [x j|? ?|? ?|?] eqn:E1; try discriminate.
    eapply uP_repeat0_f; [exact Hp| |exact E]. eapply Hp; eauto.
  Qed.
  Lemma uP_separated_loop {Sp} (p : parser A) (sep : parser Sp) : uP p -> uP sep ->
    forall fuel acc, uP (separated_loop fuel p sep acc).
  Proof.
    intros Hp Hs. induction fuel as [|f IH]; intros acc i l i' V E; cbn [separated_loop] in E; [discriminate|].
    destruct (sep i) as [x i1|? ?|? ?|?] eqn:E1; try discriminate.
    - destruct (Nat.eqb _ _); [discriminate|]. destruct (p i1) as [a i2|? ?|? ?|?] eqn:E2; try discriminate.
      + eapply IH; [|exact E]. eapply Hp; [|exact E2]. eapply Hs; eauto.
      + inversion E; subst. exact V.
    - inversion E; subst. exact V.
  Qed.
  Lemma uP_separated0 {Sp} (p : parser A) (sep : parser Sp) : uP p -> uP sep -> uP (separated0 p sep).
  Proof.
    intros Hp Hs i l i' V E. unfold separated0 in E. destruct (p i) as [a i1|? ?|? ?|?] eqn:E1; try discriminate.
    - eapply uP_separated_loop; [exact Hp|exact Hs| |exact E]. eapply Hp; eauto.
    - inversion E; subst. exact V.
  Qed.
  Lemma uP_separated1 {Sp} (p : parser A) (sep : parser Sp) : uP p -> uP sep -> uP (separated1 p sep).
  Proof.
    intros Hp Hs i l i' V E. unfold separated1 in E. destruct (p i) as [a i1|? ?|? ?|?] eqn:E1; try discriminate.
    eapply uP_separated_loop; [exact Hp|exact Hs| |exact E]. eapply Hp; eauto.
  Qed.
End Combs1.
Lemma uP_preceded {A B} (p : parser A) (q : parser B) : uP p -> uP q -> uP (preceded p q).
Proof. intros. apply uP_bind; auto. Qed.
Lemma uP_terminated {A B} (p : parser A) (q : parser B) : uP p -> uP q -> uP (terminated p q).
Proof. intros. apply uP_bind; auto. intro. apply uP_bind; auto. intro. apply uP_ret. Qed.
Lemma uP_delimited {A B D} (p : parser A) (q : parser B) (r : parser D) : uP p -> uP q -> uP r -> uP (delimited p q r).
Proof. intros. apply uP_bind; auto. intro. apply uP_bind; auto. intro. apply uP_bind; auto. intro. apply uP_ret. Qed.
Lemma uP_pair_ {A B} (p : parser A) (q : parser B) : uP p -> uP q -> uP (pair_ p q).
Proof. intros. apply uP_bind; auto. intro. apply uP_bind; auto. intro. apply uP_ret. Qed.
Lemma uP_unchecked w (p : parser bytes) : uP p -> uP (unchecked_utf8 w p).
Proof.
  intros Hp i a i' V E. unfold unchecked_utf8 in E. destruct (p i) as [x j|? ?|? ?|?] eqn:E1; try discriminate.
  destruct (utf8_valid_b x); inversion E; subst. eapply Hp; eauto.
Qed.
Lemma uP_from_utf8 (p : parser bytes) : uP p -> uP (from_utf8 p).
Proof. apply uP_try_map. Qed.

Lemma uP_one_of f : (forall b, f b = true -> ascii b = true) -> uP (one_of f).
Proof. intro H. apply uP_of_ascii, monoC_one_of, H. Qed.
Lemma uP_byte_ x : ascii x = true -> uP (byte_ x).
Proof. intro H. apply uP_of_ascii, monoC_byte_, H. Qed.
Lemma uP_lit l : forallb ascii l = true -> uP (lit l).
Proof. intro H. apply uP_of_ascii, monoC_lit, H. Qed.
Lemma uP_take_while_ascii m n f : (forall b, f b = true -> ascii b = true) -> uP (take_while_mn m n f).
Proof. intro H. apply uP_of_ascii, monoC_take_while, H. Qed.
(* a class that contains every byte >= 0x80: the run ends before an ASCII byte or at the end of the input *)
Lemma uP_take_while_wide m f : (forall b, f b = false -> ascii b = true) -> uP (take_while_mn m None f).
Proof.
  intros H i a i' V E. unfold take_while_mn in E. destruct (Nat.ltb _ _); [discriminate|]. inversion E; subst. clear E.
  unfold vin in *. unfold advance; cbn [rest].
  destruct (span_while_split f (rest i)) as (a & r & R & Fa & St & Sw). rewrite Sw. cbn [fst].
  rewrite R. rewrite skipn_app_len. rewrite R in V. eapply valid_suffix; [exact V|].
  unfold stops in St. destruct r as [|b r]; [exact I|]. cbn [starts_char]. apply H in St.
  destruct (is_cont b) eqn:C; [|reflexivity]. apply cont_not_ascii in C. congruence.
Qed.

Create HintDb up discriminated.
#[export] Hint Resolve uP_ret uP_fail uP_const_panic uP_const_cut uP_bind uP_pmap uP_try_map uP_verify_map uP_and_then
  uP_pvalue uP_pvoid uP_peek uP_opt uP_cut_err uP_context uP_alt uP_verify uP_span_ uP_with_span uP_taken uP_eof
  uP_repeat0 uP_repeat1 uP_separated0 uP_separated1 uP_preceded uP_terminated uP_delimited uP_pair_ uP_unchecked uP_from_utf8
  uP_one_of uP_byte_ uP_lit uP_take_while_ascii : up.
#[export] Hint Resolve WSCHAR_ascii HEXDIG_ascii DIGIT_ascii DT_DIGIT_ascii DIGIT1_9_ascii DIGIT0_7_ascii DIGIT0_1_ascii
  UNQUOTED_CHAR_ascii sign_ascii e_ascii : up.
#[export] Hint Extern 1 (ascii _ = true) => reflexivity : up.
#[export] Hint Extern 1 (forallb ascii _ = true) => reflexivity : up.
#[export] Hint Extern 1 (uP (if ?c then _ else _)) => destruct c : up.
#[export] Hint Extern 1 (uP (match ?x with _ => _ end)) => destruct x : up.
Ltac up := auto 40 with up.
