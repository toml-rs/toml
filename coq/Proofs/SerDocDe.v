(* Proofs/SerDocDe.v — C07 through text, the deserializer's side: what ValueSerializer wrote reads back as an equal
   value ALSO from a tree that differs from the one written in the two ways a printed-and-parsed document differs:
     - the entries of a table come in another order (key/value lines before [sub-tables]),
     - a NaN has lost its payload (the text is `nan`).
   The round trip (Proofs/SerdeRTFamily.v family_roundtrip, Proofs/SerdeRT.v roundtrip_rel) is stated for any relation
   between the tree written and the tree read that keeps leaves and arrays and lets table entries move; `tv_equiv` is
   such a relation.  Structs and struct variants look their fields up by name; maps are rebuilt entry by entry, which is
   insensitive to the order because no two keys of a typed map value are equal; sequences and tuples are arrays, whose
   order the text keeps. *)
From TV Require Import Base.Prelude Spec.SerdeData Model.Ser Model.De Proofs.SerdeRTBase Proofs.SerdeRTLeaf Proofs.SerdeRTFamily
  Proofs.SerdeRT.
From Coq Require Import Permutation.
Require Import Lia ZifyBool ZifyN ZifyNat.

(* ---- the relation ---------------------------------------------------------------------------------------------- *)
Inductive tv_equiv : tomlval -> tomlval -> Prop :=
| te_str s : tv_equiv (VStr s) (VStr s)
| te_int z : tv_equiv (VInt z) (VInt z)
| te_float a b : f64_eq a b -> tv_equiv (VFloat a) (VFloat b)
| te_bool b : tv_equiv (VBool b) (VBool b)
| te_dt d : tv_equiv (VDatetime d) (VDatetime d)
| te_arr xs ys : Forall2 tv_equiv xs ys -> tv_equiv (VArr xs) (VArr ys)
| te_tab es es' fs : Permutation es es' ->
    Forall2 (fun p q => fst p = fst q /\ tv_equiv (snd p) (snd q)) es' fs -> tv_equiv (VTab es) (VTab fs).

Definition entry_equiv (p q : bytes * tomlval) : Prop := fst p = fst q /\ tv_equiv (snd p) (snd q).

(* ---- lists ------------------------------------------------------------------------------------------------------ *)
(* for the files that import this one without SerdeRTLeaf *)
Notation narrow32_nan := SerdeRTLeaf.narrow32_nan (only parsing).

(* ---- tables: lookups agree up to the relation --------------------------------------------------------------------- *)
Lemma tab_equiv_inv es y : tv_equiv (VTab es) y ->
  exists es' fs, y = VTab fs /\ Permutation es es' /\ Forall2 entry_equiv es' fs.
Proof. intro H. inversion H; subst. eauto. Qed.

Lemma equiv_keys es' fs : Forall2 entry_equiv es' fs -> map fst es' = map fst fs.
Proof. induction 1 as [|p q l l' [H _] _ IH]; simpl; [reflexivity|]. rewrite H, IH. reflexivity. Qed.

(* ---- the relation lets a tree be read in place of the one written ---- *)
Lemma equiv_str s y : tv_equiv (VStr s) y -> y = VStr s. Proof. intro H; inversion H; reflexivity. Qed.
Lemma equiv_int z y : tv_equiv (VInt z) y -> y = VInt z. Proof. intro H; inversion H; reflexivity. Qed.
Lemma equiv_bool b y : tv_equiv (VBool b) y -> y = VBool b. Proof. intro H; inversion H; reflexivity. Qed.
Lemma equiv_dt d y : tv_equiv (VDatetime d) y -> y = VDatetime d. Proof. intro H; inversion H; reflexivity. Qed.
Lemma equiv_arr xs y : tv_equiv (VArr xs) y -> exists ys, y = VArr ys /\ Forall2 tv_equiv xs ys.
Proof. intro H; inversion H; subst; eauto. Qed.
Lemma equiv_float a y : tv_equiv (VFloat a) y -> exists b, y = VFloat b /\ f64_eq a b.
Proof. intro H; inversion H; subst; eauto. Qed.

Definition tv_equiv_rel : tree_rel :=
  {| tr := tv_equiv; tr_str := equiv_str; tr_int := equiv_int; tr_bool := equiv_bool; tr_dt := equiv_dt;
     tr_float := equiv_float; tr_arr := equiv_arr; tr_tab := tab_equiv_inv |}.

Theorem roundtrip_equiv t v x y : has_type_b t v = true -> ser_value t v = Ok x -> tv_equiv x y ->
  exists v', de_value t y = Ok v' /\ sval_eq v v'.
Proof. apply (roundtrip_rel tv_equiv_rel). Qed.

(* ---- the document roots of the text routes ---- *)
Theorem edit_root_equiv t v out y : has_type v t -> ser_edit_root t v = Ok out -> tv_equiv out y ->
  exists v', de_value t y = Ok v' /\ sval_eq v v'.
Proof.
  intros Hty H He. apply edit_root_is_table in H as (es & _ & H). apply (roundtrip_equiv t v out y Hty H He).
Qed.

Theorem toml_root_equiv t v out y : has_type v t -> ser_toml_root t v = Ok out -> tv_equiv out y ->
  exists v', de_value t y = Ok v' /\ sval_eq v v'.
Proof.
  intros Hty H He. unfold has_type in Hty.
  assert (Edit : ser_edit_root t v = Ok out -> exists v', de_value t y = Ok v' /\ sval_eq v v')
    by (intro H0; apply (edit_root_equiv _ _ _ _ Hty H0 He)).
  destruct t; try (apply Edit; destruct v; exact H).
  - (* an enum at the root (every other root goes to toml_edit's ValueSerializer, a struct with its name) *)
    destruct v as [| | | | | | | | | | | | | |i p]; try (apply Edit; exact H).
    simpl in H.
    match type of H with pick ?f ?d vs i = _ => destruct (pick_cases f d vs i) as [([vn var] & Hn & E)|[_ E]]; rewrite E in H end;
      [|discriminate].
    simpl in H. destruct var; try discriminate H.
    + apply Edit. exact H.
    + apply Edit. exact H.
    + destruct p; try discriminate H. destruct (zipM ser_value ts vs0); discriminate H.
Qed.
