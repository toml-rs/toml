(* Proofs/DeLocBase.v — small facts about the error plumbing of Model/DeLoc.v: `errs P r` (r fails only with errors
   satisfying P) through lbind / lmap / map_err, and what an error looks like where it is raised. *)
From TV Require Import Base.Prelude Model.Datetime Model.DatetimeStd Model.SerNum Spec.SerdeData Model.De.
From TV Require Import Model.DeLoc Proofs.RoutesRel.

(* r fails only with errors satisfying P *)
Definition errs {A} (P : lerr -> Prop) (r : lres A) : Prop :=
  match r with LOk _ => True | LErr e => P e end.

Lemma errs_ok {A} P (a : A) : errs P (LOk a).
Proof. exact I. Qed.

Lemma errs_lbind {A B} P (r : lres A) (f : A -> lres B) :
  errs P r -> (forall a, r = LOk a -> errs P (f a)) -> errs P (lbind r f).
Proof. destruct r as [a|e]; cbn; intros H1 H2; [apply H2; reflexivity|exact H1]. Qed.

Lemma errs_lmap {A B} P (r : lres A) (f : A -> B) : errs P r -> errs P (lmap f r).
Proof. destruct r; cbn; auto. Qed.

Lemma errs_map_err {A} (P Q : lerr -> Prop) (g : lerr -> lerr) (r : lres A) :
  errs P r -> (forall e, P e -> Q (g e)) -> errs Q (map_err g r).
Proof. destruct r as [a|e]; cbn; auto. Qed.

Lemma errs_impl {A} (P Q : lerr -> Prop) (r : lres A) : errs P r -> (forall e, P e -> Q e) -> errs Q r.
Proof. destruct r; cbn; auto. Qed.

(* an error as a visitor / the crate creates it: nothing added yet *)
Definition fresh (e : lerr) : Prop := e_keys e = [] /\ e_at e = [] /\ e_onkey e = false.
Definition fresh_nospan (e : lerr) : Prop := fresh e /\ e_span e = None.

Lemma fresh_raise {A} k : errs fresh_nospan (@raise A k).
Proof. repeat split. Qed.
Lemma fresh_raise_at {A} k sp : errs fresh (@raise_at A k sp).
Proof. repeat split. Qed.

Lemma fresh_de_char s : errs fresh_nospan (de_char_l s).
Proof. unfold de_char_l. destruct (de_char s); [exact I|apply (@fresh_raise sval)]. Qed.

Lemma fresh_de_dt s : errs fresh_nospan (de_dt_str_l s).
Proof. unfold de_dt_str_l. destruct (std_from_str s); [exact I|apply (@fresh_raise datetime)]. Qed.

Lemma find_name_errs {A B} (P : lerr -> Prop) (f : nat -> A -> lres B) d k l i :
  errs P d -> (forall j a, In (k, a) l -> errs P (f j a)) -> errs P (find_name f d k l i).
Proof.
  intros Hd Hf. destruct (find_name_cases f d k l i) as [(j & a & Hn & E)|E]; rewrite E; [|exact Hd].
  apply Hf. eapply nth_error_In. exact Hn.
Qed.

Lemma fresh_visit_scalar t s : errs fresh_nospan (visit_scalar t s).
Proof.
  unfold visit_scalar. destruct s as [sp x|sp xs|sp es]; try apply (@fresh_raise sval).
  destruct t; destruct x; try destruct w;
    try exact I; try apply (@fresh_raise sval); try apply fresh_de_char;
    match goal with |- context [de_int ?w ?z] => destruct (de_int w z) end;
    try exact I; apply (@fresh_raise sval).
Qed.

Lemma fresh_de_key t k : errs fresh_nospan (de_key_l t k).
Proof.
  induction t; cbn [de_key_l]; try apply (@fresh_raise sval); try exact I.
  - apply fresh_de_char.
  - destruct (private_name name); apply (@fresh_raise sval).
  - apply errs_lmap. exact IHt.
  - apply find_name_errs; [apply (@fresh_raise sval)|]. intros j a _. destruct a; try exact I; apply (@fresh_raise sval).
Qed.

(* children of a table / an array, by position *)
Lemma nth_error_app_skip {A} (pre l : list A) j : nth_error (pre ++ l) (length pre + j) = nth_error l j.
Proof. induction pre; cbn; auto. Qed.
Lemma nth_pre {A} (pre : list A) e es : nth_error (pre ++ e :: es) (length pre) = Some e.
Proof. rewrite <- (Nat.add_0_r (length pre)). rewrite nth_error_app_skip. reflexivity. Qed.
