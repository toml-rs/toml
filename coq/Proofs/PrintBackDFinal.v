(* Proofs/PrintBackDFinal.v — C03, class (d): the sequence of headers and key/value lines that Display
   prints (`S_print`), as a multiset, is the multiset of print items of the tree; if their source
   positions increase along the print sequence, it is the sequence in which they were read. *)
From TV Require Import Base.Prelude Gen.Consts.
From TV Require Import Model.Tree Model.Encode.
From TV Require Import Proofs.SpansDefs Proofs.LexEquivBase Proofs.PrintBackBase Proofs.PrintBackSort
                       Proofs.PrintBackEnts Proofs.PrintBackDisplay Proofs.PrintBackSecs Proofs.PrintBackHKey Proofs.PrintBackFinal
                       Proofs.PrintBackDVals Proofs.PrintBackDDisplay Proofs.PrintBackDAll Proofs.PrintBackDKey Proofs.PrintBackIValue Proofs.PrintBackDItems.
Require Import Lia ZifyBool ZifyN ZifyNat Sorting.Sorted Sorting.Permutation.

Definition kdummy : key := mkKey [] None decor_default decor_default.

(* what is printed, with the key paths: a header, or a key/value line *)
Inductive witem : Type := WH (e : entry) | WL (kp : list key) (v : value).
Definition wline (kv : list key * value) : witem := WL (fst kv) (snd kv).
Definition pit (e : entry) : list witem :=
  let '(t, p, a) := e in (match p with [] => [] | _ => [WH e] end) ++ map wline (tv t []).
Definition pfw (w : witem) : pitem :=
  match w with
  | WH (t, p, a) => PH (span_start t) (t_position t) a (t_decor t)
  | WL kp v => PL (last kp kdummy) v
  end.
Definition plw (kv : list key * value) : pitem := PL (last (fst kv) kdummy) (snd kv).
Definition wtext (s : bytes) (w : witem) : bytes :=
  match w with
  | WH (t, p, a) =>
    raw_encode (traw s (match d_prefix (t_decor t) with Some r => r | None => REmpty end)) []
    ++ hdr_text s p a ++ raw_encode (traw s (match d_suffix (t_decor t) with Some r => r | None => REmpty end)) [] ++ [x0a]
  | WL kp v => dline s (kp, v)
  end.

Lemma detxt_pit s e : detxt s e = concat (map (wtext s) (pit e)).
Proof.
  destruct e as [[t p] a]. cbn [detxt pit]. unfold dtext.
  assert (E : flat_map (dline s) (tv t []) = concat (map (wtext s) (map wline (tv t [])))).
  { rewrite flat_map_concat_map, map_map. reflexivity. }
  destruct p as [|k0 p0]; cbn [app]; [exact E|]. cbn [map concat wtext]. rewrite E, <- !app_assoc. reflexivity.
Qed.

(* ---- the tables below a table, through the tables made by dotted keys ----------------------------------------------- *)
Fixpoint TBt (t : tbl) {struct t} : list pitem :=
  match t with
  | Tbl items _ _ _ _ _ =>
    (fix go (l : list (key * item)) : list pitem := match l with [] => [] | (k, it) :: tl => TBit k it ++ go tl end) items
  end
with TBit (k : key) (it : item) {struct it} : list pitem :=
  match it with
  | ITable sub => if t_dotted sub then TBt sub else ALL sub false
  | IAot ts sp => ALLit k (IAot ts sp)
  | _ => []
  end.
Definition TBI (items : list (key * item)) : list pitem := flat_map (fun kv => TBit (fst kv) (snd kv)) items.
Lemma TBt_eq t : TBt t = TBI (t_items t).
Proof.
  destruct t as [items d im dt pos sp]. cbn [TBt t_items]. unfold TBI.
  induction items as [|[k it] tl IH]; [reflexivity|]. cbn [flat_map fst snd]. rewrite <- IH. reflexivity.
Qed.

Lemma perm_flat_map_app {A B} (f g : A -> list B) l : Permutation (flat_map f l ++ flat_map g l) (flat_map (fun x => f x ++ g x) l).
Proof.
  induction l as [|x l IH]; [reflexivity|]. cbn [flat_map]. rewrite <- !app_assoc. apply Permutation_app_head.
  rewrite (app_assoc (flat_map f l)). rewrite (Permutation_app_comm (flat_map f l) (g x)). rewrite <- app_assoc. apply Permutation_app_head, IH.
Qed.

Lemma perm_flat_map_ext {A B} (f g : A -> list B) l : Forall (fun x => Permutation (f x) (g x)) l -> Permutation (flat_map f l) (flat_map g l).
Proof. induction 1 as [|x l Hx _ IH]; [reflexivity|]. cbn [flat_map]. apply Permutation_app; assumption. Qed.

(* L1: the items of a table = its lines (through dotted tables) + the tables below *)
Lemma all_lines :
  (forall v : value, True)
  /\ (forall it, forall k p, Permutation (map plw (tvit it (p ++ [k])) ++ TBit k it) (ALLit k it))
  /\ (forall t, forall p, Permutation (map plw (tv t p) ++ TBt t) (ALLI (t_items t))).
Proof.
  apply tree_ind3; try (intros; exact I).
  - intros; reflexivity.
  - intros v _ k p. cbn [tvit map TBit ALLit app]. unfold plw. cbn [fst snd]. rewrite last_last. reflexivity.
  - intros t IH k p. cbn [tvit TBit ALLit]. destruct (t_dotted t) eqn:Ed.
    + rewrite ALL_eq. unfold hdr. rewrite Ed. cbn [orb app]. apply IH.
    + reflexivity.
  - intros ts sp IH k p. reflexivity.
  - intros items d im dt pos sp IH p. rewrite tv_eq, TBt_eq. cbn [t_items]. unfold tvi, TBI, ALLI.
    assert (E : map plw (flat_map (fun kv : key * item => tvit (snd kv) (p ++ [fst kv])) items)
                = flat_map (fun kv => map plw (tvit (snd kv) (p ++ [fst kv]))) items).
    { rewrite !flat_map_concat_map, concat_map, map_map. reflexivity. }
    rewrite E. rewrite perm_flat_map_app. apply perm_flat_map_ext. eapply Forall_impl; [|exact IH]. intros [k it] H. cbn [fst snd] in *. apply H.
Qed.

(* ---- L2: what the entries below a table print -------------------------------------------------------------------------- *)
(* a table that exists only as a super-table holds no lines *)
Definition f2 (e : entry) : bool := negb (t_implicit (etbl e)) || no_tv (etbl e).

Lemma pfw_lines l : map pfw (map wline l) = map plw l.
Proof. rewrite map_map. reflexivity. Qed.

Definition printed (l : list entry) : list pitem := map pfw (flat_map pit (filter dvis l)).

Lemma printed_app a b : printed (a ++ b) = printed a ++ printed b.
Proof. unfold printed. rewrite filter_app, flat_map_app, map_app. reflexivity. Qed.
Lemma printed_flat_map {A} (f : A -> list entry) l : printed (flat_map f l) = flat_map (fun x => printed (f x)) l.
Proof. unfold printed. rewrite filter_flat_map, flat_map_flat_map, map_flat_map. reflexivity. Qed.

Lemma print_items (Pv : value -> bool) :
  (forall v : value, True)
  /\ (forall it, forall k p, dsh_item Pv it = true -> p <> [] -> (forall e, In e (ients it p) -> f2 e = true) ->
                 Permutation (printed (ients it p)) (TBit k it))
  /\ (forall t, forall p a, dsh_tbl Pv t = true -> p <> [] -> (forall e, In e (ents t p a) -> f2 e = true) ->
                Permutation (printed (ents t p a)) (if t_dotted t then TBt t else ALL t a)).
Proof.
  apply tree_ind3; try (intros; exact I).
  - intros; reflexivity.
  - intros; reflexivity.
  - intros t IH k p Hs Hp Hf. rewrite ients_table in *. cbn [TBit]. apply IH; assumption.
  - intros ts sp IH k p Hs Hp Hf. rewrite ients_aot in *. cbn [TBit]. rewrite ALLit_aot, printed_flat_map. apply perm_flat_map_ext.
    rewrite dsh_item_aot in Hs. rewrite forallb_forall in Hs. rewrite Forall_forall in *. intros t Ht.
    pose proof (Hs t Ht) as Hst. apply andb_true_iff in Hst as [Hd Hst]. apply negb_true_iff in Hd.
    specialize (IH t Ht p true Hst Hp). rewrite Hd in IH. apply IH. intros e He. apply Hf, in_flat_map. exists t. auto.
  - intros items d im dt pos sp IH p a Hs Hp Hf. rewrite ents_eq in *. rewrite printed_app. rewrite dsh_tbl_eq in Hs. cbn [t_dotted t_items] in *.
    rewrite forallb_forall in Hs.
    (* the entries below *)
    assert (Hsub : Permutation (printed (sub_ents items p)) (TBI items)).
    { unfold sub_ents, TBI. rewrite printed_flat_map. apply perm_flat_map_ext. rewrite Forall_forall in *. intros [k it] Hk. cbn [fst snd].
      apply (IH (k, it) Hk k (p ++ [k]) (Hs _ Hk)); [destruct p; discriminate|]. intros e He. apply Hf, in_or_app. right.
      unfold sub_ents. apply in_flat_map. exists (k, it). auto. }
    set (t := Tbl items d im dt pos sp) in *.
    destruct dt.
    + cbn [app printed filter flat_map map]. rewrite Hsub, TBt_eq. reflexivity.
    + pose proof (Hf (t, p, a) (or_introl eq_refl)) as Hown. unfold f2, etbl in Hown. cbn [fst] in Hown.
      pose proof (proj2 (proj2 all_lines) t []) as HL1. rewrite TBt_eq in HL1. cbn [t_items t] in HL1. fold t in HL1.
      rewrite ALL_eq. cbn [t_items t]. fold t. unfold printed at 1. cbn [filter]. destruct (dvis (t, p, a)) eqn:Ev.
      * (* it prints: header, lines *)
        cbn [flat_map pit]. rewrite app_nil_r. destruct p as [|k0 p0]; [congruence|]. cbn [app map pfw]. rewrite pfw_lines.
        assert (Hh : hdr t a = [PH (span_start t) (t_position t) a (t_decor t)]).
        { unfold hdr. cbn [t t_dotted orb]. cbn [dvis] in Ev. destruct a; [rewrite andb_false_r; reflexivity|]. cbn [orb negb andb] in *.
          destruct (t_implicit t) eqn:Ei; [|reflexivity]. cbn [negb orb andb] in *. rewrite Hown in Ev. discriminate. }
        rewrite Hh. cbn [app]. apply perm_skip. rewrite Hsub. exact HL1.
      * (* it does not print: a super-table without lines *)
        cbn [flat_map map app]. cbn [dvis] in Ev. apply orb_false_iff in Ev as [-> Ev]. apply negb_false_iff, andb_true_iff in Ev as [Ei En].
        assert (Hh : hdr t false = []) by (unfold hdr; rewrite Ei; cbn [negb andb]; rewrite orb_true_r; reflexivity). rewrite Hh. cbn [app].
        unfold no_tv in En. destruct (tv t []) eqn:Etv; [|discriminate]. cbn [map app] in HL1. rewrite Hsub. exact HL1.
Qed.

(* Claim A: what is printed is, as a multiset, the items of the tree *)
Theorem printed_all (Pv : value -> bool) r : dsh_tbl Pv r = true -> (forall e, In e (sub_ents (t_items r) []) -> f2 e = true) ->
  Permutation (map pfw (flat_map pit ((r, [], false) :: filter dvis (sub_ents (t_items r) [])))) (ALLI (t_items r)).
Proof.
  intros Hs Hf. cbn [flat_map pit app]. rewrite map_app, pfw_lines. fold (printed (sub_ents (t_items r) [])).
  pose proof (proj2 (proj2 all_lines) r []) as HL1. rewrite <- HL1. apply Permutation_app_head. rewrite TBt_eq.
  rewrite dsh_tbl_eq in Hs. rewrite forallb_forall in Hs. unfold sub_ents, TBI. rewrite printed_flat_map. apply perm_flat_map_ext.
  rewrite Forall_forall. intros [k it] Hk. cbn [fst snd app].
  apply (proj1 (proj2 (print_items Pv)) it k [k] (Hs _ Hk)); [discriminate|]. intros e He. apply Hf. unfold sub_ents. apply in_flat_map. exists (k, it). auto.
Qed.

(* ---- the print sequence and the checks on it ----------------------------------------------------------------------------- *)
Definition vis_entries (r : tbl) : list entry := (r, [], false) :: filter dvis (sub_ents (t_items r) []).
Definition sorted_entries (r : tbl) : list entry := map snd (stable_sort (map (fun e => (epos e, e)) (vis_entries r))).
Definition S_print (r : tbl) : list witem := flat_map pit (sorted_entries r).

Fixpoint sorted_ltb (l : list N) : bool :=
  match l with [] => true | x :: tl => forallb (fun y => (x <? y)%N) tl && sorted_ltb tl end.
Lemma sorted_ltb_ok l : sorted_ltb l = true -> StronglySorted N.lt l.
Proof. exact (PrintBackIValue.sorted_ltb_ok l). Qed.

(* a header / a line is spelled in the source as it prints *)
Definition wok (s : bytes) (w : witem) : bool :=
  match w with
  | WH (t, p, a) => match span_start t with Some st => starts_with (hdr_text s p a) (skipn (N.to_nat st) s) | None => false end
  | WL kp v => kline_ok s (removelast kp) (last kp kdummy)
  end.

(* supers hold no lines; the source positions of what is printed increase; everything is spelled as it prints *)
Definition laid_out (s : bytes) (r : tbl) : bool :=
  forallb f2 (sub_ents (t_items r) [])
  && sorted_ltb (map (fun w => ppos (pfw w)) (S_print r))
  && forallb (wok s) (S_print r).

(* ---- keys of tables along paths ----------------------------------------------------------------------------------------- *)
Lemma ents_paths2 (K : key -> Prop) :
  (forall v : value, True)
  /\ (forall it, forall p, uki2 K it -> Forall K p -> Forall (fun e => Forall K (epath e) /\ uk2 K (etbl e)) (ients it p))
  /\ (forall t, forall p a, uk2 K t -> Forall K p -> Forall (fun e => Forall K (epath e) /\ uk2 K (etbl e)) (ents t p a)).
Proof.
  apply tree_ind3; try (intros; exact I).
  - intros; constructor.
  - intros; constructor.
  - intros t IH p Hu Hp. rewrite ients_table. apply IH; assumption.
  - intros ts sp IH p Hu Hp. rewrite ients_aot. apply uki2_aot in Hu. rewrite Forall_forall in IH, Hu.
    apply Forall_flat_map, Forall_forall. intros t Ht. apply (IH t Ht p true (Hu t Ht) Hp).
  - intros items d im dt pos sp IH p a Hu Hp. rewrite ents_eq. pose proof Hu as Hu0. apply uk2_eq in Hu as (_ & Hs). cbn [t_dotted t_items] in *.
    apply Forall_app. split; [destruct dt; constructor; [split; [exact Hp|exact Hu0]|constructor]|].
    unfold uks2 in Hs. rewrite Forall_forall in IH, Hs. apply Forall_flat_map, Forall_forall. intros [k it] Hk.
    destruct (Hs _ Hk) as [HK Hi]. cbn [fst snd] in *.
    (* only a table or an array of tables has entries, and its key is in K *)
    destruct (is_tab it) eqn:Et; [|destruct it; try discriminate; constructor].
    apply (IH _ Hk (p ++ [k]) Hi). apply Forall_app. split; [exact Hp|constructor; [apply HK; reflexivity|constructor]].
Qed.

Lemma tv_paths2 (K : key -> Prop) :
  (forall v : value, True)
  /\ (forall it, forall k p, (is_tab it = true -> K k) -> uki2 K it -> Forall K p ->
                 Forall (fun kv : list key * value => fst kv <> [] /\ Forall K (removelast (fst kv))) (tvit it (p ++ [k])))
  /\ (forall t, forall p, uk2 K t -> Forall K p ->
                Forall (fun kv : list key * value => fst kv <> [] /\ Forall K (removelast (fst kv))) (tv t p)).
Proof.
  apply tree_ind3; try (intros; exact I).
  - intros; constructor.
  - intros v _ k p _ _ Hp. constructor; [|constructor]. cbn [fst]. split; [destruct p; discriminate|]. rewrite removelast_last. exact Hp.
  - intros t IH k p Hk Hu Hp. cbn [tvit]. destruct (t_dotted t); [|constructor]. apply IH; [exact Hu|].
    apply Forall_app. split; [exact Hp|constructor; [apply Hk; reflexivity|constructor]].
  - intros; constructor.
  - intros items d im dt pos sp IH p Hu Hp. rewrite tv_eq. apply uk2_eq in Hu as (_ & Hs). cbn [t_items] in *. unfold uks2 in Hs.
    rewrite Forall_forall in IH, Hs. apply Forall_flat_map, Forall_forall. intros [k it] Hk.
    destruct (Hs _ Hk) as [HK Hi]. apply (IH _ Hk k p HK Hi Hp).
Qed.

Lemma tv_nonempty :
  (forall v : value, True)
  /\ (forall it, forall q, q <> [] -> Forall (fun kv : list key * value => fst kv <> []) (tvit it q))
  /\ (forall t, forall p, Forall (fun kv : list key * value => fst kv <> []) (tv t p)).
Proof.
  apply tree_ind3; try (intros; exact I).
  - intros; constructor.
  - intros v _ q Hq. constructor; [exact Hq|constructor].
  - intros t IH q Hq. cbn [tvit]. destruct (t_dotted t); [apply IH|constructor].
  - intros; constructor.
  - intros items d im dt pos sp IH p. rewrite tv_eq. cbn [t_items]. rewrite Forall_forall in IH.
    apply Forall_flat_map, Forall_forall. intros [k it] Hk. apply (IH _ Hk (p ++ [k])). destruct p; discriminate.
Qed.

(* ---- the print sequence -------------------------------------------------------------------------------------------------- *)
Lemma in_S_print r w : In w (S_print r) -> exists e, In e (vis_entries r) /\ In w (pit e).
Proof.
  unfold S_print. intro H. apply in_flat_map in H as (e & He & Hw). exists e. split; [|exact Hw].
  unfold sorted_entries in He. apply in_map_iff in He as ([q e0] & <- & He). apply (Permutation_in _ (stable_sort_perm _)) in He.
  apply in_map_iff in He as (e1 & E1 & He). injection E1 as _ <-. exact He.
Qed.

Lemma S_print_perm r : Permutation (S_print r) (flat_map pit (vis_entries r)).
Proof.
  unfold S_print. apply Permutation_flat_map. unfold sorted_entries.
  transitivity (map snd (map (fun e => (epos e, e)) (vis_entries r))); [apply Permutation_map, stable_sort_perm|].
  rewrite map_map. cbn [snd]. rewrite map_id. reflexivity.
Qed.

(* what stands in the print sequence: the header of a table below the root, or a line of a table *)
Lemma S_print_cases s r w : dsh_tbl (vok s) r = true -> In w (S_print r) ->
  exists t p a, In (t, p, a) (vis_entries r) /\ dsh_tbl (vok s) t = true
    /\ ((exists k0 p0, p = k0 :: p0 /\ w = WH (t, p, a))
        \/ (exists kp v, In (kp, v) (tv t []) /\ w = WL kp v /\ vok s v = true /\ kp <> [])).
Proof.
  intros Hs Hw. destruct (in_S_print r w Hw) as ([[t p] a] & He & Hwe). exists t, p, a. split; [exact He|].
  assert (Hes : dsh_tbl (vok s) t = true).
  { destruct He as [E | He]; [injection E as <- _ _; exact Hs|]. apply filter_In in He as [He _].
    pose proof (sub_ents_dsh (vok s) r Hs) as Hrest. rewrite Forall_forall in Hrest. apply (Hrest _ He). }
  split; [exact Hes|]. cbn [pit] in Hwe. apply in_app_iff in Hwe as [Hwe | Hwe].
  - left. destruct p as [|k0 p0]; [destruct Hwe|]. destruct Hwe as [<- | []]. eauto.
  - right. apply in_map_iff in Hwe as ([kp v] & <- & Hkv). exists kp, v. split; [exact Hkv|]. split; [reflexivity|].
    pose proof (proj2 (proj2 (dsh_tv (vok s))) t [] Hes) as Hpv. unfold pvals in Hpv. rewrite Forall_forall in Hpv.
    pose proof (proj2 (proj2 tv_nonempty) t []) as Htp. rewrite Forall_forall in Htp.
    split; [apply (Hpv _ Hkv)|apply (Htp _ Hkv)].
Qed.

Lemma vis_entries_keys s r e : uk2 (hkey s) r -> t_dotted r = false -> In e (vis_entries r) ->
  Forall (hkey s) (epath e) /\ uk2 (hkey s) (etbl e).
Proof.
  intros Hu Hnd He. pose proof (proj2 (proj2 (ents_paths2 (hkey s))) r [] false Hu (Forall_nil _)) as Hpaths.
  rewrite ents_eq, Hnd in Hpaths. cbn [app] in Hpaths. rewrite Forall_forall in Hpaths. apply Hpaths.
  destruct He as [<- | He]; [left; reflexivity|right]. apply filter_In in He as [He _]. exact He.
Qed.

Lemma concat_flat_map {A B} (f : A -> list B) l : concat (map f l) = flat_map f l.
Proof. symmetry. apply flat_map_concat_map. Qed.

(* ---- without the order and spelling checks: the same items, as a multiset ------------------------------------------------ *)
Theorem dsections_struct s r tr (items : list sitem) :
  dsh_tbl (vok s) r = true -> t_dotted r = false -> t_decor r = decor_default -> t_position r = None ->
  Permutation (ALLI (t_items r)) (map fst items) -> Forall (sitem_ok s) items ->
  forallb f2 (sub_ents (t_items r) []) = true ->
  display_document (ttbl s r) tr = concat (map (wtext s) (S_print r)) ++ raw_encode tr []
  /\ Permutation (map pfw (S_print r)) (map fst items).
Proof.
  intros Hs Hnd Hd Hp Hperm Hok Hf2. rewrite forallb_forall in Hf2.
  set (rest := sub_ents (t_items r) []) in *.
  pose proof (sub_ents_dsh (vok s) r Hs) as Hrest. fold rest in Hrest. rewrite Forall_forall in Hrest.
  pose proof (printed_all (vok s) r Hs Hf2) as PA.
  assert (PS : Permutation (map pfw (S_print r)) (map fst items)).
  { eapply Permutation_trans; [apply Permutation_map, S_print_perm|]. eapply Permutation_trans; [exact PA|exact Hperm]. }
  split; [|exact PS].
  assert (Hw : Forall (fun e => dvis e = true -> t_position (etbl e) <> None /\ decor_some (t_decor (etbl e))) rest).
  { apply Forall_forall. intros e He Hv. destruct (Hrest e He) as [_ Hpe]. destruct e as [[t p] a]. unfold epath, etbl in *. cbn [fst snd] in *.
    assert (Hin : In (pfw (WH (t, p, a))) (map fst items)).
    { apply (Permutation_in _ Hperm), (Permutation_in _ PA), in_map, in_flat_map. exists (t, p, a).
      split; [right; apply filter_In; auto|]. cbn [pit]. destruct p; [congruence|]. left. reflexivity. }
    apply in_map_iff in Hin as ([x txt] & Ex & Hit). cbn [fst pfw] in Ex. rewrite Forall_forall in Hok. specialize (Hok _ Hit). subst x. cbn [sitem_ok] in Hok.
    destruct Hok as (start & q0 & lead & trail & Y & _ & Eq & Edec & _). rewrite Eq, Edec. split; [discriminate|split; discriminate]. }
  rewrite (display_dsections (vok s) s r tr Hs Hnd Hd Hp Hw). f_equal. unfold rest.
  change ((r, @nil key, false) :: filter dvis (sub_ents (t_items r) [])) with (vis_entries r).
  assert (E : map (fun e => (epos e, detxt s e)) (vis_entries r) = map (on_snd (detxt s)) (map (fun e => (epos e, e)) (vis_entries r)))
    by (rewrite map_map; reflexivity).
  rewrite E, <- stable_sort_map, map_map. cbn [on_snd snd]. unfold S_print, sorted_entries.
  generalize (stable_sort (map (fun e : entry => (epos e, e)) (vis_entries r))). intro L.
  induction L as [|x L IH]; [reflexivity|]. cbn [map concat flat_map]. rewrite map_app, concat_app, <- IH, detxt_pit. reflexivity.
Qed.

(* ---- with them: the same sequence, each item spelled as it was read ------------------------------------------------------- *)
Theorem dsections_render s r tr (items : list sitem) :
  dsh_tbl (vok s) r = true -> t_dotted r = false -> t_decor r = decor_default -> t_position r = None -> uk2 (hkey s) r ->
  Permutation (ALLI (t_items r)) (map fst items) -> Forall (sitem_ok s) items ->
  StronglySorted N.lt (map (fun it : sitem => ppos (fst it)) items) -> laid_out s r = true ->
  display_document (ttbl s r) tr = concat (map snd items) ++ raw_encode tr [].
Proof.
  intros Hs Hnd Hd Hp Hu Hperm Hok Hsort Hlay. unfold laid_out in Hlay.
  apply andb_true_iff in Hlay as [Hlay Hwok]. apply andb_true_iff in Hlay as [Hf2 Hso].
  destruct (dsections_struct s r tr items Hs Hnd Hd Hp Hperm Hok Hf2) as [-> PS]. f_equal.
  rewrite forallb_forall in Hwok. apply sorted_ltb_ok in Hso.
  (* the same multiset, both in increasing order of position: the same sequence *)
  assert (ES : map pfw (S_print r) = map fst items).
  { apply (tag_inj ppos). apply sorted_perm_unique.
    - apply sorted_tag_lt. rewrite map_map. exact Hsort.
    - apply sorted_tag_le. rewrite map_map. exact Hso.
    - apply Permutation_map, PS. }
  (* the text, item by item *)
  f_equal. apply (map_pair_ext pfw fst (wtext s) snd _ _ ES). intros w [x txt] Hw0 Hit Ex. cbn [fst snd] in *.
  rewrite Forall_forall in Hok. specialize (Hok _ Hit). specialize (Hwok _ Hw0).
  destruct (S_print_cases s r w Hs Hw0) as (t & p & a & He & Hes & Hcase).
  destruct (vis_entries_keys s r _ Hu Hnd He) as [Hpk Heu]. unfold epath, etbl in Hpk, Heu. cbn [fst snd] in Hpk, Heu.
  destruct Hcase as [(k0 & p0 & -> & ->) | (kp & v & Hkv & -> & Hv & Hkne)]; cbn [pfw] in Ex; subst x; cbn [sitem_ok] in Hok; cbn [wok] in Hwok.
  - (* a header *)
    destruct Hok as (start & q0 & lead & trail & Y & Est & Eq & Edec & Hat & ->). rewrite Est in Hwok.
    pose proof (hdr_unique s (k0 :: p0) a start Y Hpk ltac:(discriminate) Hat Hwok) as Eh.
    cbn [wtext]. rewrite Eh, Edec. cbn [decor_new d_prefix d_suffix]. rewrite <- !app_assoc. reflexivity.
  - (* a key/value line *)
    destruct Hok as (j0 & i0 & ja & jb & po & LS & r0 & Hkat & Epre & Hls & Hprom).
    pose proof (proj2 (proj2 (tv_paths2 (hkey s))) t [] Heu (Forall_nil _)) as Htp. rewrite Forall_forall in Htp. destruct (Htp _ Hkv) as [_ Hks]. cbn [fst] in Hks.
    pose proof (kline_unique s j0 i0 ja jb (removelast kp) po (last kp kdummy) LS r0 Hkat Epre Hls Hks Hwok) as Eu.
    cbn [wtext]. rewrite <- (Hprom (removelast kp) Eu Hv). rewrite <- (app_removelast_last kdummy Hkne). reflexivity.
Qed.

(* a printed item and the item read: the same text around the key path *)
Definition same_around (t1 t2 : bytes) : Prop := exists A X Y B, t1 = A ++ X ++ B /\ t2 = A ++ Y ++ B.

Lemma item_same s r w (it : sitem) : dsh_tbl (vok s) r = true -> In w (S_print r) -> sitem_ok s it -> pfw w = fst it ->
  same_around (wtext s w) (snd it).
Proof.
  intros Hs Hw Hok Ex. destruct it as [x txt]. cbn [fst snd] in *.
  destruct (S_print_cases s r w Hs Hw) as (t & p & a & _ & _ & [(k0 & p0 & -> & ->) | (kp & v & _ & -> & Hv & Hkne)]);
    cbn [pfw] in Ex; subst x; cbn [sitem_ok] in Hok.
  - destruct Hok as (start & q0 & lead & trail & Y & Est & Eq & Edec & Hat & ->).
    exists (raw_encode (traw s lead) []), (hdr_text s (k0 :: p0) a), (hdr_open a ++ Y ++ hdr_close a), (raw_encode (traw s trail) [] ++ [x0a]).
    cbn [wtext]. rewrite Edec. cbn [decor_new d_prefix d_suffix]. split; rewrite <- ?app_assoc; reflexivity.
  - destruct Hok as (j0 & i0 & ja & jb & po & LS & r0 & _ & _ & _ & Hprom).
    set (k' := last kp kdummy) in *. set (ks := removelast kp).
    assert (Ekp : kp = ks ++ [k']) by (apply app_removelast_last, Hkne).
    pose proof (Hprom po eq_refl Hv) as Et. rewrite <- Et. rewrite Ekp. cbn [wtext]. unfold dline. cbn [fst snd]. rewrite !enc_split.
    exists (decor_prefix (k_leaf (tkey s k')) (fst DEFAULT_KEY_DECOR)), (pre_text s ks k'), (pre_text s po k'),
           (krepr s k' ++ decor_suffix (k_leaf (tkey s k')) (snd DEFAULT_KEY_DECOR) ++ [x3d]
            ++ encode_value (S (value_size (tvalue s v))) (tvalue s v) DEFAULT_VALUE_DECOR ++ [x0a]).
    split; rewrite <- ?app_assoc; reflexivity.
Qed.
