(* Proofs/DeLocTop.v — the statements of the serde half of C15 about Model/DeLoc.v, assembled from
   DeLocSpan / DeLocKeys / DeLocRefine, and the witnesses of what does NOT hold. *)
From TV Require Import Base.Prelude Model.Datetime Model.SerNum Spec.SerdeData Model.SerdeSpanned.
From TV Require Import Model.DeLoc Proofs.DeLocKeys Proofs.DeLocSpan.
From TV Require Import Extract.Show.
Require Import String.

(* with source text: the error carries the span of the node (or key) it was raised at; the one
   exception is the kind check of a Date / Time that is the very node de_loc was called on (nobody handed
   it out, so nobody attached its span) *)
Lemma de_located c t s e :
  opt_overwrite c = false -> all_spans s = true -> de_loc c t s = LErr e -> e_kind e <> KUnmodelled ->
  (exists sp, e_span e = Some sp /\ locate s (e_at e) (e_onkey e) = Some (Some sp)) \/
  (e_kind e = KDtKind /\ e_at e = [] /\ e_span e = None).
Proof. apply span_with_text. Qed.

Lemma de_located_handed_out c t s e :
  opt_overwrite c = false -> all_spans s = true -> wrap (span_of s) (de_loc c t s) = LErr e -> e_kind e <> KUnmodelled ->
  exists sp, e_span e = Some sp /\ locate s (e_at e) (e_onkey e) = Some (Some sp).
Proof. apply span_handed_out. Qed.

(* without: no span, and the key path lists the keys next_value_seed went through *)
Lemma de_keypath c t s e :
  de_loc c t (despan s) = LErr e -> e_span e = None /\ e_keys e = added_keys (e_at e) (e_onkey e).
Proof. apply keys_without_text. Qed.

(* which is the path to the offending node unless the path goes below an enum variant *)
Lemma de_keypath_ideal c t s e :
  de_loc c t (despan s) = LErr e -> below_variant (e_at e) = false -> e_onkey e = false ->
  e_keys e = ideal_keys (e_at e).
Proof.
  intros E B O. destruct (keys_without_text c t s e E) as [_ K]. rewrite K. apply added_ideal; assumption.
Qed.

(* the same holds on any tree, with or without spans *)
Lemma de_keypath_any c t s e :
  de_loc c t s = LErr e -> e_keys e = added_keys (e_at e) (e_onkey e).
Proof. intro E. pose proof (K_de_loc c t s) as H. rewrite E in H. exact (proj1 H). Qed.

(* ---- witnesses ---- *)
Definition S' (s : string) : bytes := str s.
Definition i64' := TInt TI64.
Definition t_e2 : ty := TEnum (S' "E2") [(S' "N", VNewtype i64'); (S' "S", VStruct [(S' "x", i64')]); (S' "U", VUnit)].
Definition t_senum2 : ty := TStruct (S' "SEnum2") [(S' "e", t_e2)].

(* e = { N = "x" }  (spans as toml_edit records them for this text) *)
Definition w_enum : stree :=
  NTab (Some (0, 16)%N)
       [(S' "e", Some (0, 1)%N,
         NTab (Some (4, 15)%N) [(S' "N", Some (6, 7)%N, NLeaf (Some (10, 13)%N) (VStr (S' "x")))])].

(* known finding C15-de-keypath-omits-enum-variant: the key path is `e`, the offending value sits at e.N *)
Lemma keypath_refuted :
  exists t s e, de_loc cfg0 t (despan s) = LErr e /\ e_kind e = KWrongType /\
                e_keys e = [S' "e"] /\ ideal_keys (e_at e) = [S' "e"; S' "N"].
Proof. exists t_senum2, w_enum. eexists. vm_compute. repeat split. Qed.

(* ... while with the text the span is that of the offending value "x" *)
Lemma enum_span_ok :
  exists e, de_loc cfg0 t_senum2 w_enum = LErr e /\ e_span e = Some (10, 13)%N.
Proof. eexists. vm_compute. split; reflexivity. Qed.

(* v = [1979-05-27, 1979-05-27T07:32:00Z] read as Vec<toml_datetime::Date>: the kind mismatch of the
   second element now carries that element's span (ArraySeqAccess::next_element_seed attaches it; before
   the repair it was the span of the whole array, 4..38) *)
Definition d_date : date := mkDate 1979 5 27.
Definition dt_local_date : datetime := mkDT (Some d_date) None None.
Definition dt_offset : datetime := mkDT (Some d_date) (Some (mkTime 7 32 0 0)) (Some OffZ).
Definition w_dates : stree :=
  NTab (Some (0, 39)%N)
       [(S' "v", Some (0, 1)%N,
         NArr (Some (4, 38)%N) [NLeaf (Some (5, 15)%N) (VDatetime dt_local_date); NLeaf (Some (17, 37)%N) (VDatetime dt_offset)])].
Definition t_vdate : ty := TStruct (S' "VD") [(S' "v", TSeq (TDatetime KDate))].

Lemma date_kind_located :
  exists e, all_spans w_dates = true /\ de_loc cfg0 t_vdate w_dates = LErr e /\ e_kind e = KDtKind /\
            locate w_dates (e_at e) (e_onkey e) = Some (Some (17, 37)%N) /\ e_span e = Some (17, 37)%N.
Proof. eexists. split; [reflexivity|]. split; [vm_compute; reflexivity|]. vm_compute. repeat split. Qed.

(* e = { N = 07:32:00 } read as N(Date): the payload's span (newtype_variant_seed attaches it) *)
Definition t_e3n : ty := TStruct (S' "SE3") [(S' "e", TEnum (S' "E3") [(S' "N", VNewtype (TDatetime KDate))])].
Definition w_e3n : stree :=
  NTab (Some (0, 21)%N)
       [(S' "e", Some (0, 1)%N,
         NTab (Some (4, 20)%N) [(S' "N", Some (6, 7)%N, NLeaf (Some (10, 18)%N) (VDatetime (mkDT None (Some (mkTime 7 32 0 0)) None)))])].
Lemma date_kind_variant_located :
  exists e, de_loc cfg0 t_e3n w_e3n = LErr e /\ e_kind e = KDtKind /\ e_span e = Some (10, 18)%N.
Proof. eexists. vm_compute. repeat split. Qed.

(* the remaining corner: a Date that is itself the node handed to de_loc has nobody to attach its span *)
Lemma date_kind_root :
  exists e, de_loc cfg0 (TDatetime KDate) (NLeaf (Some (0, 20)%N) (VDatetime dt_offset)) = LErr e /\
            e_kind e = KDtKind /\ e_at e = [] /\ e_span e = None.
Proof. eexists. vm_compute. repeat split. Qed.

(* the seeded change "deserialize_option sets the span unconditionally": t = { b = "x", c = "y" } read as
   Option<Inner> — the plumbing of the repository points at "x", the mutated one at the whole table *)
Definition t_inner : ty := TStruct (S' "Inner") [(S' "b", i64'); (S' "c", TStr)].
Definition t_optnested : ty := TStruct (S' "SOptNested") [(S' "t", TOpt t_inner)].
Definition w_opt : stree :=
  NTab (Some (0, 26)%N)
       [(S' "t", Some (0, 1)%N,
         NTab (Some (4, 25)%N) [(S' "b", Some (6, 7)%N, NLeaf (Some (10, 13)%N) (VStr (S' "x")));
                                (S' "c", Some (15, 16)%N, NLeaf (Some (19, 22)%N) (VStr (S' "y")))])].
Lemma option_seed_noticed :
  (exists e, de_loc cfg0 t_optnested w_opt = LErr e /\ e_span e = Some (10, 13)%N /\
             locate w_opt (e_at e) (e_onkey e) = Some (Some (10, 13)%N)) /\
  (exists e, de_loc (mkCfg (fun _ => false) true) t_optnested w_opt = LErr e /\ e_span e = Some (4, 25)%N /\
             locate w_opt (e_at e) (e_onkey e) = Some (Some (10, 13)%N)).
Proof. split; eexists; (split; [vm_compute; reflexivity|]); vm_compute; repeat split. Qed.

(* a missing field: the span of the table that lacks it; the key path of that table *)
Definition t_outer : ty := TStruct (S' "Outer") [(S' "t", t_inner)].
Definition w_missing : stree :=
  NTab (Some (0, 14)%N)
       [(S' "t", Some (0, 1)%N, NTab (Some (4, 13)%N) [(S' "b", Some (6, 7)%N, NLeaf (Some (10, 11)%N) (VInt 1))])].
Lemma missing_field_example :
  (exists e, de_loc cfg0 t_outer w_missing = LErr e /\ e_kind e = KMissing (S' "c") /\ e_span e = Some (4, 13)%N) /\
  (exists e, de_loc cfg0 t_outer (despan w_missing) = LErr e /\ e_span e = None /\ e_keys e = [S' "t"]).
Proof. split; eexists; vm_compute; repeat split. Qed.

(* deny_unknown_fields: the span of the unknown KEY, the key path of the table *)
Definition t_sdeny : ty := TStruct (S' "SDeny") [(S' "a", i64')].
Definition w_deny : stree :=
  NTab (Some (0, 13)%N)
       [(S' "a", Some (0, 1)%N, NLeaf (Some (4, 5)%N) (VInt 1)); (S' "zz", Some (6, 8)%N, NLeaf (Some (11, 12)%N) (VInt 2))].
Lemma deny_example :
  exists e, de_loc (mkCfg (fun n => bytes_eqb n (S' "SDeny")) false) t_sdeny w_deny = LErr e /\
            e_kind e = KUnknownField /\ e_span e = Some (6, 8)%N /\ e_onkey e = true /\ e_keys e = [].
Proof. eexists. vm_compute. repeat split. Qed.
