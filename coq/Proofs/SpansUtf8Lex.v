(* Proofs/SpansUtf8Lex.v — C14, character boundaries, part 2: every parser of the TOML grammar consumes
   whole characters (`uP`, Proofs/SpansUtf8.v): trivia, strings, numbers, date-times, keys, values,
   key/value lines, headers, the document loop. *)
From TV Require Import Base.Prelude Base.Winnow Gen.Consts.
From TV Require Import Model.Trivia Model.Strings Model.Datetime Model.Numbers Model.Tree Model.Parse Model.Document.
From TV Require Import Proofs.LexEquivBase.
From TV Require Import Proofs.NoPanicBase Proofs.NoPanicLex Proofs.NoPanicValue.
From TV Require Import Proofs.SpansUtf8.
Require Import Lia ZifyBool ZifyN ZifyNat.

(* ---- classes whose last range is 0x80..0xff contain every byte that is not ASCII ------------------------------ *)
Lemma NON_EOL_wide b : in_class NON_EOL b = false -> ascii b = true.
Proof. pose proof (b2n_lt b). unfold in_class, NON_EOL, ascii. cbn [existsb fst snd]. lia. Qed.
Lemma LITERAL_CHAR_wide b : in_class LITERAL_CHAR b = false -> ascii b = true.
Proof. pose proof (b2n_lt b). unfold in_class, LITERAL_CHAR, ascii. cbn [existsb fst snd]. lia. Qed.
Lemma BASIC_UNESCAPED_wide b : in_class BASIC_UNESCAPED b = false -> ascii b = true.
Proof. pose proof (b2n_lt b). unfold in_class, BASIC_UNESCAPED, ascii. cbn [existsb fst snd]. lia. Qed.
Lemma MLB_UNESCAPED_wide b : in_class MLB_UNESCAPED b = false -> ascii b = true.
Proof. pose proof (b2n_lt b). unfold in_class, MLB_UNESCAPED, ascii. cbn [existsb fst snd]. lia. Qed.
Lemma TIME_DELIM_ascii b : in_class TIME_DELIM b = true -> ascii b = true.
Proof. unfold in_class, TIME_DELIM, ascii. cbn [existsb fst snd]. lia. Qed.
Lemma zulu_ascii b : byte_eqb b x5a || byte_eqb b x7a = true -> ascii b = true.
Proof. intro H. apply orb_prop in H as [H|H]; apply byte_eqb_eq in H; subst b; reflexivity. Qed.
Lemma sign_lambda_ascii b : byte_eqb b plus || byte_eqb b dash = true -> ascii b = true.
Proof. intro H. apply orb_prop in H as [H|H]; apply byte_eqb_eq in H; subst b; reflexivity. Qed.
#[export] Hint Resolve TIME_DELIM_ascii zulu_ascii sign_lambda_ascii : up.

Lemma uP_take_while0_wide f : (forall b, f b = false -> ascii b = true) -> uP (take_while0 f).
Proof. apply uP_take_while_wide. Qed.
Lemma uP_take_while1_wide f : (forall b, f b = false -> ascii b = true) -> uP (take_while1 f).
Proof. apply uP_take_while_wide. Qed.
Lemma uP_take_while0_ascii f : (forall b, f b = true -> ascii b = true) -> uP (take_while0 f).
Proof. apply uP_take_while_ascii. Qed.
Lemma uP_take_while1_ascii f : (forall b, f b = true -> ascii b = true) -> uP (take_while1 f).
Proof. apply uP_take_while_ascii. Qed.
#[export] Hint Resolve uP_take_while0_ascii uP_take_while1_ascii : up.

(* ---- trivia --------------------------------------------------------------------------------------------------- *)
Lemma ws_uP : uP ws. Proof. unfold ws. up. Qed.
Lemma comment_uP : uP comment.
Proof. unfold comment. apply uP_bind; [up|]. intros _. apply uP_bind; [apply uP_take_while0_wide, NON_EOL_wide|]. intros _. up. Qed.
Lemma newline_uP : uP newline.
Proof.
  intros i a i' V E. unfold newline in E. apply bind_inv in E as (b & j & E0 & E).
  unfold any in E0. destruct (rest i) as [|b0 r] eqn:R; [discriminate|]. inversion E0; subst b j. clear E0.
  assert (Vj : ascii b0 = true -> vin (advance 1 i)).
  { intro Hb. unfold vin in *. unfold advance; cbn [rest]. rewrite R in *. cbn [skipn]. rewrite utf8_cons_ascii in V by exact Hb. exact V. }
  destruct (byte_eqb b0 x0a) eqn:B1.
  - apply byte_eqb_eq in B1. subst b0. apply ret_inv in E as [_ ->]. apply Vj. reflexivity.
  - destruct (byte_eqb b0 x0d) eqn:B2; [|discriminate]. apply byte_eqb_eq in B2. subst b0.
    assert (U : uP (pvoid (byte_ LF))) by up. eapply U; [|exact E]. apply Vj. reflexivity.
Qed.
#[export] Hint Resolve ws_uP comment_uP newline_uP : up.
Lemma ws_newline_uP : uP ws_newline. Proof. unfold ws_newline. up. Qed.
#[export] Hint Resolve ws_newline_uP : up.
Lemma ws_newlines_uP : uP ws_newlines. Proof. unfold ws_newlines. up. Qed.
#[export] Hint Resolve ws_newlines_uP : up.

Lemma wscn_f_uP : forall fuel start, uP (ws_comment_newline_f fuel start).
Proof.
  induction fuel as [|f IH]; intros start i a i' V H; [discriminate|]. cbn [ws_comment_newline_f] in H.
  destruct (ws i) as [w i1|? ?|? ?|?] eqn:E; try discriminate. pose proof (ws_uP _ _ _ V E) as V1.
  assert (St : forall p : parser unit, uP p ->
            match p i1 with
            | Ok _ i2 => if (pos i2 =? start)%N then Ok tt i2 else ws_comment_newline_f f (pos i2) i2
            | Bt e i' => Bt e i' | Cut e i' => Cut e i' | Panic s => Panic s
            end = Ok a i' -> vin i').
  { intros p Hp H1. destruct (p i1) as [u i2|? ?|? ?|?] eqn:E1; try discriminate. pose proof (Hp _ _ _ V1 E1) as V2.
    destruct (pos i2 =? start)%N; [inversion H1; subst; exact V2|eapply IH; eauto]. }
  destruct (rest i1) as [|b r] eqn:R.
  - inversion H; subst. exact V1.
  - destruct (byte_eqb b x23); [apply (St (comment ;;; context newline)); [up|exact H]|].
    destruct (byte_eqb b x0a); [apply (St newline newline_uP H)|].
    destruct (byte_eqb b x0d); [apply (St newline newline_uP H)|].
    inversion H; subst. exact V1.
Qed.
Lemma ws_comment_newline_uP : uP ws_comment_newline.
Proof. intros i a i' V H. eapply wscn_f_uP; eauto. Qed.
Lemma line_ending_uP : uP line_ending. Proof. unfold line_ending. up. Qed.
#[export] Hint Resolve ws_comment_newline_uP line_ending_uP : up.
Lemma line_trailing_uP : uP line_trailing. Proof. unfold line_trailing. up. Qed.
#[export] Hint Resolve line_trailing_uP : up.

(* ---- strings -------------------------------------------------------------------------------------------------------- *)
Lemma hexescape_uP n : uP (hexescape n). Proof. unfold hexescape. up. Qed.
#[export] Hint Resolve hexescape_uP : up.

Lemma assoc_byte_ascii {A} (l : list (byte * A)) b v :
  forallb (fun p => ascii (fst p)) l = true -> assoc_byte l b = Some v -> ascii b = true.
Proof.
  induction l as [|[k x] l IH]; cbn [assoc_byte forallb fst]; [discriminate|]. intros H E.
  apply andb_true_iff in H as [H1 H2]. destruct (byte_eqb k b) eqn:B; [apply byte_eqb_eq in B; subst; exact H1|auto].
Qed.
Lemma escape_seq_char_uP : uP escape_seq_char.
Proof.
  intros i a i' V E. unfold escape_seq_char in E. apply bind_inv in E as (b & j & E0 & E).
  unfold any in E0. destruct (rest i) as [|b0 r] eqn:R; [discriminate|]. inversion E0; subst b j. clear E0.
  assert (Vj : ascii b0 = true -> vin (advance 1 i)).
  { intro Hb. unfold vin in *. unfold advance; cbn [rest]. rewrite R in *. cbn [skipn]. rewrite utf8_cons_ascii in V by exact Hb. exact V. }
  destruct (assoc_byte ESCAPE_SIMPLE b0) as [c|] eqn:A1.
  - apply ret_inv in E as [_ ->]. apply Vj. eapply (assoc_byte_ascii ESCAPE_SIMPLE); [reflexivity|exact A1].
  - destruct (assoc_byte ESCAPE_HEX b0) as [n|] eqn:A2.
    + assert (U : uP (context (cut_err (hexescape n)))) by up. eapply U; [|exact E]. apply Vj.
      eapply (assoc_byte_ascii ESCAPE_HEX); [reflexivity|exact A2].
    + apply context_inv, cut_err_inv in E. discriminate.
Qed.
#[export] Hint Resolve escape_seq_char_uP : up.
Lemma escaped_uP : uP escaped. Proof. unfold escaped. up. Qed.
#[export] Hint Resolve escaped_uP : up.
Lemma basic_chars_uP : uP basic_chars.
Proof. unfold basic_chars. apply uP_alt; [apply uP_from_utf8, uP_take_while1_wide, BASIC_UNESCAPED_wide|up]. Qed.
#[export] Hint Resolve basic_chars_uP : up.

Lemma chunks_f_uP (p : parser bytes) : uP p -> forall fuel acc, uP (chunks_f fuel p acc).
Proof.
  intros Hp. induction fuel as [|f IH]; intros acc i l i' V H; cbn [chunks_f] in H; [discriminate|].
  destruct (p i) as [c i1|? ?|? ?|?] eqn:E; try discriminate.
  - destruct (Nat.eqb _ _); [discriminate|]. eapply IH; [|exact H]. eapply Hp; eauto.
  - inversion H; subst. exact V.
Qed.
Lemma uP_chunks p : uP p -> uP (chunks p).
Proof. intros Hp i l i' V H. eapply chunks_f_uP; eauto. Qed.
#[export] Hint Resolve uP_chunks : up.

Lemma basic_string_uP : uP basic_string. Proof. unfold basic_string. up. Qed.
#[export] Hint Resolve basic_string_uP : up.
Lemma mlb_escaped_nl_uP : uP mlb_escaped_nl. Proof. unfold mlb_escaped_nl. up. Qed.
#[export] Hint Resolve mlb_escaped_nl_uP : up.
Lemma mlb_content_uP : uP mlb_content.
Proof.
  unfold mlb_content. apply uP_alt; [apply uP_from_utf8, uP_take_while1_wide, MLB_UNESCAPED_wide|]. up.
Qed.
#[export] Hint Resolve mlb_content_uP : up.

Lemma quotes2_uP q term : ascii q = true -> uP (quotes2 q term).
Proof.
  intro Hq. rewrite quotes2_alt.
  apply uP_alt; apply uP_unchecked, uP_terminated; try apply uP_peek; apply uP_lit; cbn [forallb]; rewrite Hq; reflexivity.
Qed.
#[export] Hint Resolve quotes2_uP : up.

Lemma mlb_quote_loop_uP : forall fuel acc, uP (mlb_quote_loop fuel acc).
Proof.
  induction fuel as [|f IH]; intros acc i l i' V H; [discriminate|]. cbn [mlb_quote_loop] in H. fold mlb_q in H.
  assert (Uq : uP (opt mlb_q)) by (unfold mlb_q; up). assert (Uc : uP (opt mlb_content)) by up.
  destruct (opt mlb_q i) as [[qi|] i1|? ?|? ?|?] eqn:E1; try discriminate.
  - pose proof (Uq _ _ _ V E1) as V1.
    destruct (opt mlb_content i1) as [[ci|] i2|? ?|? ?|?] eqn:E2; try discriminate.
    + pose proof (Uc _ _ _ V1 E2) as V2.
      destruct (chunks mlb_content i2) as [more i3|? ?|? ?|?] eqn:E3; try discriminate.
      eapply IH; [|exact H]. eapply (uP_chunks _ mlb_content_uP); eauto.
    + inversion H; subst. eapply Uc; eauto.
  - inversion H; subst. eapply Uq; eauto.
Qed.
Lemma mlb_quote_p_uP c : uP (mlb_quote_p c).
Proof. intros i a i' V H. eapply mlb_quote_loop_uP; eauto. Qed.
#[export] Hint Resolve mlb_quote_p_uP : up.
Lemma ml_basic_body_uP : uP ml_basic_body. Proof. rewrite ml_basic_body_eq. up. Qed.
#[export] Hint Resolve ml_basic_body_uP : up.
Lemma ml_basic_string_uP : uP ml_basic_string. Proof. unfold ml_basic_string. up. Qed.
Lemma literal_string_uP : uP literal_string.
Proof.
  unfold literal_string. apply uP_context, uP_from_utf8. apply uP_bind; [up|]. intros _.
  apply uP_bind; [apply uP_cut_err, uP_take_while0_wide, LITERAL_CHAR_wide|]. intro c. up.
Qed.
Lemma ml_literal_body_uP : uP ml_literal_body.
Proof. unfold ml_literal_body. apply uP_from_utf8_hands, hands_taken. np. Qed.
#[export] Hint Resolve ml_basic_string_uP literal_string_uP ml_literal_body_uP : up.
Lemma ml_literal_string_uP : uP ml_literal_string. Proof. unfold ml_literal_string. up. Qed.
#[export] Hint Resolve ml_literal_string_uP : up.
Lemma string_uP : uP string_. Proof. unfold string_. up. Qed.
#[export] Hint Resolve string_uP : up.

(* ---- date-times --------------------------------------------------------------------------------------------------------- *)
Lemma unsigned_digits_uP m n : uP (unsigned_digits m n). Proof. unfold unsigned_digits. up. Qed.
#[export] Hint Resolve unsigned_digits_uP : up.
Lemma date_fullyear_uP : uP date_fullyear. Proof. unfold date_fullyear. up. Qed.
Lemma two_digit_field_uP lo hi : uP (two_digit_field lo hi). Proof. unfold two_digit_field. up. Qed.
#[export] Hint Resolve date_fullyear_uP two_digit_field_uP : up.
#[export] Hint Unfold date_month date_mday time_hour time_minute time_second : up.
Lemma full_date_day_uP y m : uP (full_date_day y m).
Proof. unfold full_date_day, date_mday. refine (uP_diag (fun j => _) _). intro j. up. Qed.
#[export] Hint Resolve full_date_day_uP : up.
Lemma full_date_tail_uP y : uP (full_date_tail y). Proof. unfold full_date_tail, date_month. up. Qed.
#[export] Hint Resolve full_date_tail_uP : up.
Lemma full_date_uP : uP full_date. Proof. rewrite full_date_eq. up. Qed.
Lemma time_secfrac_uP : uP time_secfrac. Proof. unfold time_secfrac. up. Qed.
#[export] Hint Resolve full_date_uP time_secfrac_uP : up.
Lemma partial_time_uP : uP partial_time. Proof. unfold partial_time, time_hour, time_minute, time_second. up. Qed.
#[export] Hint Resolve partial_time_uP : up.
Lemma time_offset_uP : uP time_offset. Proof. unfold time_offset, time_hour, time_minute. up. Qed.
Lemma time_delim_uP : uP time_delim. Proof. unfold time_delim. up. Qed.
#[export] Hint Resolve time_offset_uP time_delim_uP : up.
Lemma date_time_uP : uP date_time. Proof. unfold date_time. up. Qed.
#[export] Hint Resolve date_time_uP : up.

(* ---- numbers ---------------------------------------------------------------------------------------------------------------- *)
Lemma bool_lit_uP l v : forallb ascii l = true -> uP (bool_lit l v).
Proof. intro H. unfold bool_lit. destruct l as [|c l]; [apply uP_const_panic|]. up. Qed.
Lemma true_uP : uP true_. Proof. apply bool_lit_uP. reflexivity. Qed.
Lemma false_uP : uP false_. Proof. apply bool_lit_uP. reflexivity. Qed.
Lemma dec_int_uP : uP dec_int. Proof. apply uP_of_ascii, dec_int_monoC. Qed.
Lemma prefixed_int_uP w prefix d : forallb ascii prefix = true -> mono d -> uP (prefixed_int w prefix d).
Proof.
  intros Hp Hd. unfold prefixed_int. apply uP_context, uP_unchecked_hands, hands_preceded_lit; [exact Hp|].
  apply hands_taken. np.
Qed.
#[export] Hint Resolve true_uP false_uP dec_int_uP : up.
Lemma integer_uP : uP integer.
Proof.
  intros i a i' V H. destruct (integer_cases i) as [E|[E|[E|E]]]; rewrite E in H; revert V H;
    match goal with |- vin i -> ?p i = _ -> _ => assert (M : uP p); [|intros V H; eapply M; eauto] end.
  - apply uP_cut_err, uP_try_map, prefixed_int_uP; [reflexivity|np].
  - apply uP_cut_err, uP_try_map, prefixed_int_uP; [reflexivity|np].
  - apply uP_cut_err, uP_try_map, prefixed_int_uP; [reflexivity|np].
  - up.
Qed.
Lemma float__uP : uP float_. Proof. rewrite float_eq_. apply uP_unchecked_hands, hands_taken. unfold float_body. np. Qed.
Lemma inf_uP : uP inf. Proof. unfold inf. up. Qed.
Lemma nan_uP : uP nan. Proof. unfold nan. up. Qed.
#[export] Hint Resolve integer_uP float__uP inf_uP nan_uP : up.
Lemma special_float_uP : uP special_float. Proof. unfold special_float. up. Qed.
#[export] Hint Resolve special_float_uP : up.
Lemma float_uP : uP float. Proof. unfold float. up. Qed.
#[export] Hint Resolve float_uP : up.

(* ---- keys --------------------------------------------------------------------------------------------------------------------- *)
Lemma unquoted_key_uP : uP unquoted_key. Proof. unfold unquoted_key. up. Qed.
#[export] Hint Resolve unquoted_key_uP : up.
Lemma simple_key_uP : uP simple_key. Proof. unfold simple_key. up. Qed.
#[export] Hint Resolve simple_key_uP : up.
Lemma key_part_uP : uP key_part. Proof. unfold key_part. up. Qed.
#[export] Hint Resolve key_part_uP : up.
Lemma key_raw_uP : uP key_raw. Proof. unfold key_raw. up. Qed.
#[export] Hint Resolve key_raw_uP : up.
Lemma key_uP : uP key_. Proof. rewrite key_eq. up. Qed.
#[export] Hint Resolve key_uP : up.

(* ---- values --------------------------------------------------------------------------------------------------------------------- *)
Lemma uP_check_recursion {A} (p : parser A) : uP p -> uP (check_recursion p).
Proof.
  intros Hp i a i' V E. apply check_recursion_inv in E as (i2 & d & E & D & ->). unfold vin in *. cbn [set_depth rest].
  eapply (Hp (set_depth (S (depth i)) i)); [exact V|exact E].
Qed.
#[export] Hint Resolve uP_check_recursion : up.

Section Knot.
  Variable value_rec : parser value.
  Hypothesis Hu : uP value_rec.
  Lemma array_value_uP : uP (array_value value_rec). Proof. unfold array_value. up. Qed.
  Local Hint Resolve array_value_uP : up.
  Lemma array_values_uP : uP (array_values value_rec). Proof. unfold array_values. up. Qed.
  Local Hint Resolve array_values_uP : up.
  Lemma array_uP : uP (array value_rec). Proof. unfold array. up. Qed.
  Lemma inline_keyval_uP : uP (inline_keyval value_rec). Proof. unfold inline_keyval. up. Qed.
  Local Hint Resolve inline_keyval_uP : up.
  Lemma inline_table_uP : uP (inline_table value_rec). Proof. unfold inline_table. up. Qed.
  Local Hint Resolve array_uP inline_table_uP : up.
  Lemma value_body_uP : uP (value_body value_rec). Proof. unfold value_body. up. Qed.
  Local Hint Resolve value_body_uP : up.
  Lemma value_step_uP : uP (value_step value_rec). Proof. unfold value_step. up. Qed.
End Knot.
Lemma value_f_uP n : uP (value_f n).
Proof.
  induction n as [|n IH]; [cbn [value_f]; apply uP_const_panic|].
  change (value_f (S n)) with (value_step (value_f n)). apply value_step_uP, IH.
Qed.
Lemma value_uP : uP value_. Proof. intros i a i' V E. eapply value_f_uP; eauto. Qed.
#[export] Hint Resolve value_uP : up.

(* ---- document lines ----------------------------------------------------------------------------------------------------------------- *)
Lemma parse_keyval_uP : uP parse_keyval. Proof. unfold parse_keyval. up. Qed.
#[export] Hint Resolve parse_keyval_uP : up.
Lemma keyval_uP st : uP (keyval st). Proof. unfold keyval. up. Qed.
Lemma header_uP ia st : uP (header ia st). Proof. unfold header. destruct ia; up. Qed.
#[export] Hint Resolve keyval_uP header_uP : up.
Lemma table_uP st : uP (table st). Proof. unfold table. up. Qed.
Lemma parse_comment_uP st : uP (parse_comment st). Proof. unfold parse_comment. up. Qed.
Lemma parse_ws_uP st : uP (parse_ws st). Proof. unfold parse_ws. up. Qed.
Lemma parse_newline_uP st : uP (parse_newline st). Proof. unfold parse_newline. up. Qed.
#[export] Hint Resolve table_uP parse_comment_uP parse_ws_uP parse_newline_uP : up.
Lemma doc_line_uP st : uP (doc_line st). Proof. unfold doc_line. up. Qed.
Lemma doc_loop_uP : forall fuel st i st' i', vin i -> doc_loop fuel st i = Ok st' i' -> vin i'.
Proof.
  induction fuel as [|f IH]; intros st i st' i' V H; cbn [doc_loop] in H; [discriminate|].
  destruct (doc_line st i) as [s1 i1|? ?|? ?|?] eqn:E; try discriminate.
  - destruct (Nat.eqb _ _); [discriminate|]. eapply IH; [|exact H]. eapply doc_line_uP; eauto.
  - inversion H; subst. exact V.
Qed.
