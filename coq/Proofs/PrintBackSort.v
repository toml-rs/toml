(* Proofs/PrintBackSort.v — C03, class (c): the order in which Display visits the tables of a document
   (Model/Encode.v: assign_positions, stable_sort, visit_tables) depends only on the multiset of the
   visible tables and their positions: filtering commutes with the stable insertion sort, and a list
   that is a permutation of a strictly sorted list sorts to it. *)
From TV Require Import Base.Prelude.
From TV Require Import Model.Tree Model.Encode.
Require Import Lia ZifyBool ZifyN ZifyNat Sorting.Sorted Sorting.Permutation.

Section Sort.
  Context {A : Type}.
  Notation elt := (N * A)%type.
  Definition kle (a b : elt) : Prop := (fst a <= fst b)%N.
  Definition klt (a b : elt) : Prop := (fst a < fst b)%N.

  Lemma insert_sorted_perm (x : elt) l : Permutation (insert_sorted x l) (x :: l).
  Proof.
    induction l as [|y l IH]; cbn [insert_sorted]; [reflexivity|]. destruct (fst x <? fst y)%N; [reflexivity|].
    rewrite IH. apply perm_swap.
  Qed.

  Lemma insert_sorted_sorted (x : elt) l : StronglySorted kle l -> StronglySorted kle (insert_sorted x l).
  Proof.
    induction 1 as [|y l Hs IH Hy]; cbn [insert_sorted]; [repeat constructor|].
    destruct (fst x <? fst y)%N eqn:E.
    - constructor; [constructor; assumption|]. constructor; [unfold kle; lia|].
      eapply Forall_impl; [|exact Hy]. unfold kle. intros; lia.
    - constructor; [exact IH|]. apply (Permutation_Forall (Permutation_sym (insert_sorted_perm x l))).
      constructor; [unfold kle; lia|exact Hy].
  Qed.

  Lemma insert_sorted_filter (p : elt -> bool) (x : elt) l : StronglySorted kle l ->
    filter p (insert_sorted x l) = if p x then insert_sorted x (filter p l) else filter p l.
  Proof.
    induction 1 as [|y l Hs IH Hy]; cbn [insert_sorted filter]; [destruct (p x); reflexivity|].
    destruct (fst x <? fst y)%N eqn:E; cbn [filter].
    - destruct (p x) eqn:Px; [|reflexivity]. destruct (p y) eqn:Py; cbn [insert_sorted]; [rewrite E; reflexivity|].
      (* y is dropped: every later element is still above x *)
      clear IH Hs. induction l as [|z l IHl]; cbn [filter insert_sorted]; [reflexivity|].
      inversion Hy as [|? ? Hz Hl]; subst. destruct (p z); [|apply IHl; assumption].
      cbn [insert_sorted]. assert (Q : (fst x <? fst z)%N = true) by (unfold kle in Hz; lia). rewrite Q. reflexivity.
    - rewrite IH. destruct (p x), (p y); cbn [insert_sorted]; try rewrite E; reflexivity.
  Qed.

  Lemma fold_sorted l : forall acc, StronglySorted kle acc -> StronglySorted kle (fold_left (fun acc x => insert_sorted x acc) l acc).
  Proof. induction l as [|x l IH]; intros acc H; cbn [fold_left]; [exact H|]. apply IH, insert_sorted_sorted, H. Qed.

  Lemma stable_sort_sorted (l : list elt) : StronglySorted kle (stable_sort l).
  Proof. apply fold_sorted. constructor. Qed.

  Lemma stable_sort_perm (l : list elt) : Permutation (stable_sort l) l.
  Proof.
    unfold stable_sort. enough (H : forall acc, Permutation (fold_left (fun acc x => insert_sorted x acc) l acc) (acc ++ l))
      by (apply (H [])).
    induction l as [|x l IH]; intro acc; cbn [fold_left]; [rewrite app_nil_r; reflexivity|].
    rewrite IH, insert_sorted_perm. apply Permutation_middle.
  Qed.

  Lemma stable_sort_filter (p : elt -> bool) (l : list elt) : filter p (stable_sort l) = stable_sort (filter p l).
  Proof.
    unfold stable_sort.
    enough (H : forall acc, StronglySorted kle acc ->
               filter p (fold_left (fun acc x => insert_sorted x acc) l acc)
               = fold_left (fun acc x => insert_sorted x acc) (filter p l) (filter p acc))
      by (apply (H []); constructor).
    induction l as [|x l IH]; intros acc Hs; cbn [fold_left filter]; [reflexivity|].
    rewrite (IH _ (insert_sorted_sorted x acc Hs)), (insert_sorted_filter p x acc Hs).
    destruct (p x); reflexivity.
  Qed.

  (* a sorted list that is a permutation of a strictly sorted one is that list *)
  Lemma sorted_perm_unique : forall (S L : list elt), StronglySorted klt S -> StronglySorted kle L -> Permutation L S -> L = S.
  Proof.
    induction S as [|s S IH]; intros L HS HL P.
    - apply Permutation_nil. symmetry. exact P.
    - destruct L as [|a L]; [apply Permutation_nil_cons in P; destruct P|].
      inversion HS as [|? ? HS' Hs]; subst. inversion HL as [|? ? HL' Ha]; subst.
      assert (Ea : a = s).
      { assert (Ina : In a (s :: S)) by (apply (Permutation_in _ P); left; reflexivity).
        assert (Ins : In s (a :: L)) by (apply (Permutation_in _ (Permutation_sym P)); left; reflexivity).
        destruct Ina as [<- | Ina]; [reflexivity|]. destruct Ins as [-> | Ins]; [reflexivity|].
        rewrite Forall_forall in Hs, Ha. specialize (Hs _ Ina). specialize (Ha _ Ins). unfold klt, kle in *. lia. }
      subst a. f_equal. apply IH; [exact HS'|exact HL'|]. apply (Permutation_cons_inv P).
  Qed.

  Theorem stable_sort_unique (L S : list elt) : StronglySorted klt S -> Permutation L S -> stable_sort L = S.
  Proof.
    intros HS P. apply sorted_perm_unique; [exact HS|apply stable_sort_sorted|]. rewrite stable_sort_perm. exact P.
  Qed.
End Sort.

(* ---- visit_tables over a list in which only some entries print ---------------------------------------- *)
Definition entry : Type := (tbl * list key * bool)%type.
Definition on_snd {A B C} (f : B -> C) (x : A * B) : A * C := (fst x, f (snd x)).

Lemma insert_sorted_map {A B} (g : A -> B) (x : N * A) l :
  map (on_snd g) (insert_sorted x l) = insert_sorted (on_snd g x) (map (on_snd g) l).
Proof.
  induction l as [|y l IH]; [reflexivity|]. cbn [insert_sorted map].
  change (fst (on_snd g x)) with (fst x). change (fst (on_snd g y)) with (fst y).
  destruct (fst x <? fst y)%N; [reflexivity|]. cbn [map]. rewrite IH. reflexivity.
Qed.

Lemma stable_sort_map {A B} (g : A -> B) (l : list (N * A)) : map (on_snd g) (stable_sort l) = stable_sort (map (on_snd g) l).
Proof.
  unfold stable_sort.
  enough (H : forall acc, map (on_snd g) (fold_left (fun acc x => insert_sorted x acc) l acc)
                          = fold_left (fun acc x => insert_sorted x acc) (map (on_snd g) l) (map (on_snd g) acc)) by (apply (H [])).
  induction l as [|x l IH]; intro acc; [reflexivity|]. cbn [fold_left map]. rewrite IH, insert_sorted_map. reflexivity.
Qed.

Lemma visit_tables_filter (f : entry -> entry) (vis : N * entry -> bool) : forall l b,
  (forall q e b0, In (q, e) l -> vis (q, e) = false ->
     let '(t, p, a) := f e in visit_table t p a b0 = ([], b0)) ->
  visit_tables (map (on_snd f) l) b = visit_tables (map (on_snd f) (filter vis l)) b.
Proof.
  induction l as [|[q e] l IH]; intros b H; [reflexivity|]. cbn [map filter]. unfold on_snd at 1. cbn [fst snd].
  destruct (vis (q, e)) eqn:V.
  - cbn [map]. unfold on_snd at 2. cbn [fst snd]. destruct (f e) as [[t p] a] eqn:Ef. cbn [visit_tables].
    destruct (visit_table t p a b) as [txt b']. rewrite IH; [reflexivity|]. intros; eapply H; [right; eassumption|assumption].
  - pose proof (H q e b (or_introl eq_refl) V) as E. destruct (f e) as [[t p] a]. cbn [visit_tables]. rewrite E. cbn [app].
    apply IH. intros; eapply H; [right; eassumption|assumption].
Qed.

Lemma visit_tables_concat (f : entry -> entry) (txt : entry -> bytes) : forall l b,
  (forall q e b0, In (q, e) l -> let '(t, p, a) := f e in fst (visit_table t p a b0) = txt e) ->
  visit_tables (map (on_snd f) l) b = concat (map (fun x => txt (snd x)) l).
Proof.
  induction l as [|[q e] l IH]; intros b H; [reflexivity|]. cbn [map concat snd]. unfold on_snd at 1. cbn [fst snd].
  pose proof (H q e b (or_introl eq_refl)) as E. destruct (f e) as [[t p] a]. cbn [visit_tables].
  destruct (visit_table t p a b) as [tx b']. cbn [fst] in E. subst tx.
  rewrite (IH b'); [reflexivity|]. intros; eapply H; right; eassumption.
Qed.
