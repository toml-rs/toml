(* Proofs/AccessorsParsed.v — the read API on PARSED documents: in every accepted document made editable
   (tbl_despan = ImDocument::into_mut / str::parse::<DocumentMut>) every entry the root table's iteration shows is
   handed out by doc["k"] / Item::get(k) under its own key, and no entry is a placeholder.  Uses the WF backbone
   (parse_WF: keys of every table distinct, no Item::None in a parsed tree). *)
From TV Require Import Base.Prelude Model.Tree Model.Document Model.Encode Spec.WF Model.Accessors.
From TV Require Import Proofs.WFParseTop Proofs.AccessorsSpec.
From TV Require Import Proofs.KvFacts.

Lemma tbl_wf_keys top t : tbl_wf top t -> NoDup (keys_of (t_items t)).
Proof. destruct t as [items d im dt p sp]. cbn [tbl_wf t_items]. intros (_ & H & _). exact H. Qed.

Lemma tbl_wf_no_placeholder top t k it : tbl_wf top t -> In (k, it) (t_items t) -> item_is_none it = false.
Proof.
  destruct t as [items d im dt p sp]. cbn [tbl_wf t_items]. intros (_ & _ & H) Hin.
  pose proof (all_P_In _ _ _ H Hin) as Hx. cbn [fst snd] in Hx. destruct Hx as (_ & Hx).
  destruct it; [destruct Hx|reflexivity|reflexivity|reflexivity].
Qed.

Lemma parsed_root_lookup s d r t k it :
  parse_document s = POk d -> tbl_despan s (doc_root d) = Some r -> raw_despan s (doc_trailing d) = Some t ->
  In (k, it) (t_items r) ->
  doc_index (ITable r) (k_key k) = Some it /\ index_str (k_key k) (ITable r) = Some it /\ item_is_none it = false.
Proof.
  intros Hp Hr Ht Hin.
  destruct (parse_WF s d r t Hp Hr Ht) as ((_ & Hwf & _) & _).
  pose proof (tbl_wf_keys _ _ Hwf) as Hnd.
  pose proof (tbl_wf_no_placeholder _ _ _ _ Hwf Hin) as Hn.
  repeat split; try exact Hn; apply index_str_table; assumption.
Qed.
