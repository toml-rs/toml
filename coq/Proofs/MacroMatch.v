(* Proofs/MacroMatch.v — C19: facts about the macro-by-example matcher and transcriber of Model/Macro.v
   on the pattern shapes the heads of toml_internal! use:
     $($x:tt)*  /  $($x:tt)+          takes all remaining tokens of its delimited sequence
     $($($k:tt)-+).+                  takes a dotted path of dashed segments, up to a token that is
                                      neither `-` nor `.`
   and the transcriptions  $($x)*  and  $($($k)-+).+  give the tokens back.
   Every head begins with `@ state`, so on an input `@ s ...` only the rules of state s count
   (`first_match_state`). *)
From TV Require Import Base.Prelude Model.Macro.

(* two bytes told apart by a class are different *)
Lemma byte_eqb_apart : forall (f : byte -> bool) b c, f b = true -> f c = false -> byte_eqb b c = false.
Proof.
  intros f b c Hb Hc. destruct (byte_eqb b c) eqn:E; [|reflexivity].
  apply byte_eqb_eq in E. subst c. rewrite Hb in Hc. discriminate Hc.
Qed.

Lemma var_beq_refl : forall x, var_beq x x = true.
Proof. destruct x; reflexivity. Qed.
Lemma var_beq_true : forall x y, var_beq x y = true -> x = y.
Proof. exact internal_var_dec_bl. Qed.

(* a variable bound to a sequence of token trees *)
Definition tts_bnd (ts : list tt) : bnd := BSeq (List.map BTT ts).

Lemma seq_match_cons : forall m p ps ts,
  seq_match m (p :: ps) ts =
  match m p ts with
  | Some (e1, r) => match seq_match m ps r with Some (e2, r2) => Some (e1 ++ e2, r2) | None => None end
  | None => None
  end.
Proof. reflexivity. Qed.

Lemma seq_match_app : forall m ps1 ps2 ts,
  seq_match m (ps1 ++ ps2) ts =
  match seq_match m ps1 ts with
  | Some (e1, r) => match seq_match m ps2 r with Some (e2, r2) => Some (e1 ++ e2, r2) | None => None end
  | None => None
  end.
Proof.
  intros m ps1 ps2. induction ps1 as [|p ps1 IH]; intro ts.
  - cbn [app seq_match]. destruct (seq_match m ps2 ts) as [[e r]|]; reflexivity.
  - cbn [app]. rewrite !seq_match_cons. destruct (m p ts) as [[e1 r]|]; [|reflexivity].
    rewrite IH. destruct (seq_match m ps1 r) as [[e2 r2]|]; [|reflexivity].
    destruct (seq_match m ps2 r2) as [[e3 r3]|]; [|reflexivity]. rewrite app_assoc. reflexivity.
Qed.

(* ---- $($x:tt)* and $($x:tt)+ ---- *)
Lemma body_tt : forall x t r, seq_match match_pat [V x] (t :: r) = Some ([(x, BTT t)], r).
Proof. reflexivity. Qed.
Lemma body_tt_nil : forall x, seq_match match_pat [V x] [] = None.
Proof. reflexivity. Qed.

Lemma rep_loop_all : forall x ts fuel, List.length ts < fuel -> ts <> [] ->
  rep_loop (seq_match match_pat [V x]) None fuel ts = Some (List.map (fun t => [(x, BTT t)]) ts, []).
Proof.
  intros x. induction ts as [|t ts IH]; intros fuel Hf Hne; [contradiction|].
  destruct fuel as [|f]; [cbn in Hf; lia|]. cbn [rep_loop]. rewrite body_tt.
  destruct ts as [|t2 ts'].
  - destruct f as [|f']; reflexivity.
  - rewrite IH; [reflexivity|cbn [List.length] in *; lia|discriminate].
Qed.

Lemma lookup_singleton_map : forall x (ts : list tt),
  List.map (fun e : env => match lookup x e with Some b => b | None => BSeq [] end) (List.map (fun t => [(x, BTT t)]) ts)
  = List.map BTT ts.
Proof.
  intros. rewrite map_map. apply map_ext. intro t. cbn [lookup]. rewrite var_beq_refl. reflexivity.
Qed.

Lemma rep_env_single : forall x its,
  rep_env [x] its = [(x, BSeq (List.map (fun e : env => match lookup x e with Some b => b | None => BSeq [] end) its))].
Proof. reflexivity. Qed.
Lemma vars_single_tt : forall x, flat_map pat_vars [V x] = [x].
Proof. reflexivity. Qed.

Lemma match_star : forall x ts, match_pat (starP x) ts = Some ([(x, tts_bnd ts)], []).
Proof.
  intros x [|t ts]; [reflexivity|].
  unfold starP. cbn [match_pat]. rewrite body_tt.
  rewrite rep_loop_all; [|cbn [List.length]; lia|discriminate].
  rewrite vars_single_tt, rep_env_single, (lookup_singleton_map x (t :: ts)). reflexivity.
Qed.

Lemma match_plus : forall x ts, ts <> [] -> match_pat (plusP x) ts = Some ([(x, tts_bnd ts)], []).
Proof. intros x [|t ts] H; [contradiction|]. exact (match_star x (t :: ts)). Qed.

(* ---- single patterns ---- *)
Lemma match_punct_same : forall c ts, match_pat (PPunct c) (TPunct c :: ts) = Some ([], ts).
Proof. intros. cbn [match_pat]. rewrite byte_eqb_refl. reflexivity. Qed.
Lemma match_ident_same : forall s ts, match_pat (PIdent s) (TIdent s :: ts) = Some ([], ts).
Proof. intros. cbn [match_pat]. rewrite bytes_eqb_refl. reflexivity. Qed.
Lemma match_root : forall r ts, ident_frag_ok r = true ->
  match_pat rootP (TIdent r :: ts) = Some ([(Vroot, BTT (TIdent r))], ts).
Proof. intros r ts H. unfold rootP. cbn [match_pat]. rewrite H. reflexivity. Qed.
Lemma match_tt : forall x t ts, match_pat (V x) (t :: ts) = Some ([(x, BTT t)], ts).
Proof. reflexivity. Qed.
Lemma match_group : forall d ps inner R,
  match_pat (PGroup d ps) (TGroup d inner :: R) =
  match seq_match match_pat ps inner with Some (e, []) => Some (e, R) | _ => None end.
Proof. intros. cbn [match_pat]. replace (delim_beq d d) with true by (destruct d; reflexivity). reflexivity. Qed.
Lemma match_group_star : forall d x ts R,
  match_pat (PGroup d [starP x]) (TGroup d ts :: R) = Some ([(x, tts_bnd ts)], R).
Proof. intros. rewrite match_group, seq_match_cons, match_star. reflexivity. Qed.
Lemma match_group_plus : forall d x ts R, ts <> [] ->
  match_pat (PGroup d [plusP x]) (TGroup d ts :: R) = Some ([(x, tts_bnd ts)], R).
Proof. intros. rewrite match_group, seq_match_cons, match_plus by assumption. reflexivity. Qed.

(* ---- $( body ) c +   on   item c item c ... item ++ R ---- *)
(* the next token is not the punctuation c *)
Definition not_head (c : byte) (R : list tt) : bool :=
  match R with TPunct c' :: _ => negb (byte_eqb c c') | _ => true end.

Section SepRep.
Variables (ps : list pat) (c : byte) (ok : list tt -> bool).
Hypothesis ok_sep : forall X, ok (TPunct c :: X) = true.

(* an item with its bindings: the body takes exactly the item, provided what follows is ok *)
Definition item_of (it : list tt * env) : Prop :=
  fst it <> [] /\ forall R, ok R = true -> seq_match match_pat ps (fst it ++ R) = Some (snd it, R).

Lemma join_cons2 : forall (x y : list tt) l,
  join_tts (Some c) (x :: y :: l) = x ++ TPunct c :: join_tts (Some c) (y :: l).
Proof. reflexivity. Qed.

Lemma join_length : forall its, Forall item_of its ->
  List.length its <= List.length (join_tts (Some c) (List.map fst its)).
Proof.
  induction its as [|[x e] [|[y e2] its] IH]; intro H; [cbn; lia| |]; inversion H as [|? ? [Hx _] Hrest]; subst.
  - destruct x; [contradiction|]. cbn; lia.
  - change (List.map fst ((x, e) :: (y, e2) :: its)) with (x :: List.map fst ((y, e2) :: its)).
    cbn [List.map fst] in *. rewrite join_cons2, app_length. specialize (IH Hrest). cbn [List.length] in *. lia.
Qed.

Lemma rep_loop_sep : forall its fuel R, its <> [] -> Forall item_of its -> List.length its <= fuel ->
  ok R = true -> not_head c R = true ->
  rep_loop (seq_match match_pat ps) (Some c) fuel (join_tts (Some c) (List.map fst its) ++ R)
  = Some (List.map snd its, R).
Proof.
  induction its as [|[x e] its IH]; intros fuel R Hne Hall Hf HR1 HR2; [contradiction|].
  inversion Hall as [|? ? [_ Hx] Hrest]; subst. cbn [fst snd] in Hx.
  destruct fuel as [|f]; [cbn in Hf; lia|].
  destruct its as [|[y e2] its'].
  - cbn [List.map fst snd join_tts rep_loop]. rewrite (Hx R HR1).
    destruct R as [|[s|l|c'|d g] R']; try reflexivity.
    cbn [not_head] in HR2. destruct (byte_eqb c c'); [discriminate|reflexivity].
  - cbn [List.map fst snd] in *. rewrite join_cons2, <- app_assoc. cbn [app rep_loop].
    rewrite (Hx _ (ok_sep _)), byte_eqb_refl.
    rewrite (IH f R); [reflexivity|discriminate|assumption|cbn [List.length] in *; lia|assumption|assumption].
Qed.

Theorem match_sep : forall its R, its <> [] -> Forall item_of its -> ok R = true -> not_head c R = true ->
  match_pat (PRep ps (Some c) true) (join_tts (Some c) (List.map fst its) ++ R)
  = Some (rep_env (flat_map pat_vars ps) (List.map snd its), R).
Proof.
  intros its R Hne Hall HR1 HR2. cbn [match_pat].
  assert (Hfirst : exists e r, seq_match match_pat ps (join_tts (Some c) (List.map fst its) ++ R) = Some (e, r)).
  { destruct its as [|[x e] [|[y e2] its']]; [contradiction| |]; inversion Hall as [|? ? [_ Hx] _]; subst; cbn [fst snd List.map] in *.
    - cbn [join_tts]. rewrite (Hx R HR1). eauto.
    - rewrite join_cons2, <- app_assoc. cbn [app]. rewrite (Hx _ (ok_sep _)). eauto. }
  destruct Hfirst as [e0 [r0 H0]]. rewrite H0.
  rewrite rep_loop_sep; [reflexivity|assumption|assumption| |assumption|assumption].
  rewrite app_length. pose proof (join_length its Hall). lia.
Qed.
End SepRep.

(* ---- $($($k:tt)-+).+ ---- *)
Definition dash_join (toks : list tt) : list tt := join_tts (Some c_minus) (List.map (fun t => [t]) toks).
Definition dot_join (segs : list (list tt)) : list tt := join_tts (Some c_dot) (List.map dash_join segs).

Lemma dash_join_cons2 : forall t t2 toks,
  dash_join (t :: t2 :: toks) = t :: TPunct c_minus :: dash_join (t2 :: toks).
Proof. reflexivity. Qed.
Lemma dot_join_cons2 : forall s s2 segs,
  dot_join (s :: s2 :: segs) = dash_join s ++ TPunct c_dot :: dot_join (s2 :: segs).
Proof. reflexivity. Qed.

Lemma match_dashed : forall x toks R, toks <> [] -> not_head c_minus R = true ->
  match_pat (PRep [V x] (Some c_minus) true) (dash_join toks ++ R) = Some ([(x, tts_bnd toks)], R).
Proof.
  intros x toks R Hne HR.
  pose proof (match_sep [V x] c_minus (fun _ => true) (fun _ => eq_refl) (List.map (fun t => ([t], [(x, BTT t)])) toks) R) as H.
  rewrite !map_map in H. cbn [fst snd] in H. unfold dash_join. rewrite H.
  - rewrite vars_single_tt, rep_env_single, lookup_singleton_map. reflexivity.
  - destruct toks; [contradiction|discriminate].
  - apply Forall_forall. intros it Hin. apply in_map_iff in Hin as [t [<- _]]. split; [discriminate|reflexivity].
  - reflexivity.
  - exact HR.
Qed.

Definition seg_pat (x : var) : pat := PRep [V x] (Some c_minus) true.
Definition key_bnd (segs : list (list tt)) : bnd := BSeq (List.map tts_bnd segs).

Lemma match_key : forall x segs R, segs <> [] -> Forall (fun s => s <> []) segs ->
  not_head c_minus R = true -> not_head c_dot R = true ->
  match_pat (keyP x) (dot_join segs ++ R) = Some ([(x, key_bnd segs)], R).
Proof.
  intros x segs R Hne Hall HR1 HR2.
  pose proof (match_sep [seg_pat x] c_dot (not_head c_minus) (fun _ => eq_refl)
                (List.map (fun s => (dash_join s, [(x, tts_bnd s)])) segs) R) as H.
  rewrite !map_map in H. cbn [fst snd] in H. change (join_tts (Some c_dot) (List.map (fun s => dash_join s) segs)) with (dot_join segs) in H. change (keyP x) with (PRep [seg_pat x] (Some c_dot) true).
  rewrite H.
  - change (flat_map pat_vars [seg_pat x]) with [x]. rewrite rep_env_single. unfold key_bnd. do 5 f_equal.
    rewrite map_map. apply map_ext. intro toks. cbn [lookup]. rewrite var_beq_refl. reflexivity.
  - destruct segs; [contradiction|discriminate].
  - apply Forall_forall. intros it Hin. apply in_map_iff in Hin as [s [<- Hs]]. rewrite Forall_forall in Hall.
    pose proof (Hall s Hs) as Hsne. split; cbn [fst snd].
    + destruct s as [|t [|t2 s']]; [contradiction|discriminate|discriminate].
    + intros R' HR'. rewrite seq_match_cons. unfold seg_pat. rewrite (match_dashed x s R' Hsne HR'). reflexivity.
  - exact HR1.
  - exact HR2.
Qed.

(* ---- transcription ---- *)
Lemma lookup_env_nth : forall x vars e i l, lookup x e = Some (BSeq l) -> var_mem x vars = true ->
  lookup x (env_nth vars e i) = Some (nth i l (BSeq [])).
Proof.
  intros x vars e i l. induction e as [|[y b] e IH]; intros H Hm; [discriminate|].
  cbn [lookup env_nth List.map] in *.
  destruct (var_beq x y) eqn:E.
  - apply var_beq_true in E. subst y. injection H as ->. rewrite Hm. cbn [lookup]. rewrite var_beq_refl. reflexivity.
  - fold (env_nth vars e i).
    destruct b as [t|l0]; [rewrite E; apply IH; assumption|].
    destruct (var_mem y vars); rewrite E; apply IH; assumption.
Qed.

Lemma map_nth_seq : forall {A} (l : list A) d, List.map (fun i => nth i l d) (seq 0 (List.length l)) = l.
Proof.
  intros A l d. induction l as [|a l IH]; [reflexivity|].
  cbn [List.length seq List.map nth]. f_equal. rewrite <- seq_shift, map_map. exact IH.
Qed.

Lemma join_singletons : forall (ts : list tt), join_tts None (List.map (fun t => [t]) ts) = ts.
Proof.
  induction ts as [|t [|t2 ts] IH]; [reflexivity|reflexivity|].
  cbn [List.map join_tts app] in *. f_equal. exact IH.
Qed.

Lemma var_mem_single : forall x, var_mem x [x] = true.
Proof. intro x. unfold var_mem. cbn [existsb]. rewrite var_beq_refl. reflexivity. Qed.

Lemma transcribe_rep_tt : forall x e ts sep, lookup x e = Some (tts_bnd ts) ->
  transcribe (QRep [QVar x] sep) e = join_tts sep (List.map (fun t => [t]) ts).
Proof.
  intros x e ts sep H. cbn [transcribe flat_map tpl_vars app rep_len]. rewrite H. unfold tts_bnd at 1.
  f_equal.
  rewrite (map_ext _ (fun i => match nth i (List.map BTT ts) (BSeq []) with BTT t => [t] | BSeq _ => [] end)).
  2:{ intro i. rewrite app_nil_r. rewrite (lookup_env_nth x [x] e i (List.map BTT ts) H (var_mem_single x)). reflexivity. }
  rewrite <- (map_map (fun i => nth i (List.map BTT ts) (BSeq [])) (fun b => match b with BTT t => [t] | BSeq _ => [] end)).
  rewrite map_nth_seq. rewrite map_map. reflexivity.
Qed.

Lemma transcribe_star : forall x e ts, lookup x e = Some (tts_bnd ts) -> transcribe (starQ x) e = ts.
Proof. intros. unfold starQ. rewrite (transcribe_rep_tt x e ts None H). apply join_singletons. Qed.

Lemma transcribe_key : forall x e segs, lookup x e = Some (key_bnd segs) -> transcribe (keyQ x) e = dot_join segs.
Proof.
  intros x e segs H. unfold keyQ. cbn [transcribe flat_map tpl_vars app rep_len]. rewrite H. unfold key_bnd at 1.
  unfold dot_join. f_equal. rewrite map_length.
  rewrite (map_ext _ (fun i => dash_join (nth i segs []))).
  2:{ intro i. rewrite app_nil_r.
      apply transcribe_rep_tt.
      rewrite (lookup_env_nth x [x] e i (List.map tts_bnd segs) H (var_mem_single x)).
      change (BSeq []) with (tts_bnd []). rewrite map_nth. reflexivity. }
  rewrite <- (map_map (fun i => nth i segs []) dash_join). rewrite map_nth_seq. reflexivity.
Qed.

(* ---- reading bindings back (what `invoke` does with an environment) ---- *)
Lemma bnd_tts_tts : forall ts, bnd_tts (tts_bnd ts) = ts.
Proof.
  intro ts. unfold bnd_tts, tts_bnd. induction ts as [|t ts IH]; [reflexivity|].
  cbn [List.map flat_map app]. f_equal. exact IH.
Qed.

Lemma env_tts_lookup : forall x e ts, lookup x e = Some (tts_bnd ts) -> env_tts x e = ts.
Proof. intros x e ts H. unfold env_tts. rewrite H. apply bnd_tts_tts. Qed.

Lemma env_segs_lookup : forall x e segs, lookup x e = Some (key_bnd segs) -> env_segs x e = segs.
Proof.
  intros x e segs H. unfold env_segs. rewrite H. unfold key_bnd. rewrite map_map.
  rewrite (map_ext _ (fun s => s)); [apply map_id|]. intro s. apply bnd_tts_tts.
Qed.

Lemma env_tt_lookup : forall x e t, lookup x e = Some (BTT t) -> env_tt x e = EOk t.
Proof. intros x e t H. unfold env_tt. rewrite H. reflexivity. Qed.

Lemma lookup_app : forall x e1 e2,
  lookup x (e1 ++ e2) = match lookup x e1 with Some b => Some b | None => lookup x e2 end.
Proof.
  intros x e1 e2. induction e1 as [|[y b] e1 IH]; [reflexivity|].
  cbn [app lookup]. destruct (var_beq x y); [reflexivity|exact IH].
Qed.

Lemma first_match_app : forall rs1 rs2 input,
  first_match (rs1 ++ rs2) input =
  match first_match rs1 input with Some x => Some x | None => first_match rs2 input end.
Proof.
  induction rs1 as [|r rs1 IH]; intros rs2 input; [reflexivity|].
  cbn [app first_match]. destruct (match_rule r input); [reflexivity|apply IH].
Qed.

(* ---- the rules of one state ---- *)
(* every head of toml_internal! starts with `@ state`: on an input `@ s ...` only the rules of state s
   can match, so the rule list may be cut down to them before anything else is looked at *)
Definition for_state (s : bytes) (r : rule) : bool :=
  match r_head r with PPunct _ :: PIdent s' :: _ => bytes_eqb s' s | _ => true end.

Lemma first_match_state : forall s X rs,
  first_match rs (TPunct c_at :: TIdent s :: X) = first_match (filter (for_state s) rs) (TPunct c_at :: TIdent s :: X).
Proof.
  intros s X. induction rs as [|r rs IH]; [reflexivity|]. cbn [filter first_match].
  destruct (for_state s r) eqn:E; [cbn [first_match]; rewrite IH; reflexivity|].
  rewrite <- IH. unfold for_state in E. unfold match_rule, match_seq.
  destruct (r_head r) as [|[s0|c|x f|d ps|ps sep plus] [|[s'|c'|x' f'|d' ps'|ps' sep' plus'] hd]]; try discriminate E.
  rewrite seq_match_cons. cbn [match_pat]. destruct (byte_eqb c c_at); [|reflexivity].
  rewrite seq_match_cons. cbn [match_pat]. rewrite E. reflexivity.
Qed.
