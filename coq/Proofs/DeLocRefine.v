(* Proofs/DeLocRefine.v — erasing the locations, the located deserializer (Model/DeLoc.v de_loc) is
   the value-level deserializer of C07 (Model/De.v de_value) on the stripped tree: it succeeds exactly
   when de_value does, with the same value.  (Which ERROR is reported is not compared: De.v collapses
   them, and visits struct fields in field order where de_loc follows the table order.)
   Assumptions on the tree: leaves hold scalars and the keys of a table are distinct (`tree_ok`; both
   hold of every tree toml_edit builds); no struct is deny_unknown_fields (De.v has no such flag). *)
From TV Require Import Base.Prelude Model.DatetimeStd Model.SerNum Spec.SerdeData Model.De Model.SerdeSpanned.
From TV Require Import Model.DeLoc Proofs.SerdeRTBase Proofs.RoutesRel Proofs.SpannedRTBase Proofs.DeLocBase.

Definition lval {A} (r : lres A) : option A := match r with LOk a => Some a | LErr _ => None end.
Definition rval {A} (r : result A) : option A := match r with Ok a => Some a | Err _ => None end.

Fixpoint tree_ok (s : stree) : bool :=
  match s with
  | NLeaf _ x => is_leaf x
  | NArr _ xs => forallb tree_ok xs
  | NTab _ es => nodup_bytes (map (fun e : bytes * ospan * stree => fst (fst e)) es)
                 && forallb (fun e : bytes * ospan * stree => tree_ok (snd e)) es
  end.

Definition nodeny (c : cfg) : Prop := forall n, deny c n = false.

(* ---- plumbing does not change the value ---- *)
Lemma lval_map_err {A} g (r : lres A) : lval (map_err g r) = lval r.
Proof. destruct r; reflexivity. Qed.
Lemma lval_wrap {A} sp (r : lres A) : lval (wrap sp r) = lval r.
Proof. apply lval_map_err. Qed.
Lemma lval_wrap_always {A} sp (r : lres A) : lval (wrap_always sp r) = lval r.
Proof. apply lval_map_err. Qed.
Lemma lval_under {A} st (r : lres A) : lval (under st r) = lval r.
Proof. apply lval_map_err. Qed.
Lemma lval_on_key {A} (r : lres A) : lval (on_key r) = lval r.
Proof. apply lval_map_err. Qed.
Lemma lval_addkey {A} k (r : lres A) : lval (addkey k r) = lval r.
Proof. apply lval_map_err. Qed.
Lemma lval_value_of_entry {A} i e (r : lres A) : lval (value_of_entry i e r) = lval r.
Proof. unfold value_of_entry. rewrite lval_under, lval_addkey, lval_wrap. reflexivity. Qed.
Lemma lval_key_of_entry {A} i e (r : lres A) : lval (key_of_entry i e r) = lval r.
Proof. unfold key_of_entry. rewrite lval_under, lval_on_key, lval_wrap. reflexivity. Qed.

Definition obind {A B} (o : option A) (f : A -> option B) : option B := match o with Some a => f a | None => None end.
Lemma lval_lbind {A B} (r : lres A) (f : A -> lres B) : lval (lbind r f) = obind (lval r) (fun a => lval (f a)).
Proof. destruct r; reflexivity. Qed.
Lemma lval_lmap {A B} (g : A -> B) (r : lres A) : lval (lmap g r) = option_map g (lval r).
Proof. destruct r; reflexivity. Qed.
Lemma rval_rbind {A B} (r : result A) (f : A -> result B) : rval (rbind r f) = obind (rval r) (fun a => rval (f a)).
Proof. destruct r; reflexivity. Qed.
Lemma rval_rmap {A B} (g : A -> B) (r : result A) : rval (rmap g r) = option_map g (rval r).
Proof. destruct r; reflexivity. Qed.
Lemma lval_raise {A} k : lval (@raise A k) = None.
Proof. reflexivity. Qed.
Lemma lval_raise_at {A} k sp : lval (@raise_at A k sp) = None.
Proof. reflexivity. Qed.

(* ---- leaves and keys ---- *)
Lemma lval_de_char s : lval (de_char_l s) = rval (de_char s).
Proof. unfold de_char_l. destruct (de_char s); reflexivity. Qed.
Lemma lval_de_dt s : lval (de_dt_str_l s) = rval (de_dt_str s).
Proof. unfold de_dt_str_l, de_dt_str. destruct (std_from_str s); reflexivity. Qed.

Lemma lval_visit_scalar t s : scalar_ty t = true -> tree_ok s = true ->
  lval (visit_scalar t s) = rval (de_value t (strip s)).
Proof.
  intros St Ok. destruct s as [sp x|sp xs|sp es]; cbn [strip visit_scalar].
  - cbn [tree_ok] in Ok. destruct t; try discriminate; destruct x; try discriminate; cbn [de_value];
      try reflexivity; try (destruct w; reflexivity); try apply lval_de_char.
    destruct (de_int w z); reflexivity.
  - destruct t; try discriminate; try reflexivity; destruct w; reflexivity.
  - destruct t; try discriminate; try reflexivity; destruct w; reflexivity.
Qed.

Lemma find_name_agree {A R1 R2} (v1 : R1 -> option sval) (v2 : R2 -> option sval)
      (f : nat -> A -> R1) (g : nat -> A -> R2) d1 d2 k l : forall i,
  v1 d1 = v2 d2 -> (forall j a, In (k, a) l -> v1 (f j a) = v2 (g j a)) ->
  v1 (find_name f d1 k l i) = v2 (find_name g d2 k l i).
Proof.
  induction l as [|[n a] l IH]; intros i Hd Hf; [exact Hd|]. cbn [find_name].
  destruct (bytes_eqb n k) eqn:E.
  - apply bytes_eqb_eq in E. subst. apply Hf. left. reflexivity.
  - apply IH; [exact Hd|]. intros j a' Hin. apply Hf. right. exact Hin.
Qed.

Lemma lval_de_key t k : lval (de_key_l t k) = rval (de_key t k).
Proof.
  induction t; cbn [de_key_l de_key]; try reflexivity.
  - apply lval_de_char.
  - destruct (private_name name); reflexivity.
  - rewrite lval_lmap, rval_rmap, IHt. reflexivity.
  - apply (find_name_agree lval rval); [reflexivity|]. intros j a _. destruct a; reflexivity.
Qed.

(* ---- children ---- *)
Lemma tree_ok_arr sp xs : tree_ok (NArr sp xs) = true -> Forall (fun x => tree_ok x = true) xs.
Proof. cbn [tree_ok]. intro H. apply Forall_forall. apply forallb_forall. exact H. Qed.
Lemma tree_ok_tab sp es : tree_ok (NTab sp es) = true ->
  nodup_bytes (map en_key es) = true /\ Forall (fun e => tree_ok (en_val e) = true) es.
Proof.
  cbn [tree_ok]. rewrite andb_true_iff. intros [H1 H2]. split; [exact H1|].
  apply Forall_forall. intros e Hin. rewrite forallb_forall in H2. apply H2. exact Hin.
Qed.

Definition agrees (de : ty -> stree -> lres sval) (t : ty) : Prop :=
  forall x, tree_ok x = true -> lval (de t x) = rval (de_value t (strip x)).

Section Visitors.
  Variable de : ty -> stree -> lres sval.

  Lemma lval_seq_elems t xs : agrees de t -> Forall (fun x => tree_ok x = true) xs -> forall i,
    lval (seq_elems de t xs i) = rval (mapM (de_value t) (map strip xs)).
  Proof.
    intros Hde F. induction F as [|x xs Hx _ IH]; intro i; [reflexivity|]. cbn [seq_elems map mapM].
    rewrite lval_lbind, rval_rbind, lval_under, lval_wrap, (Hde x Hx). destruct (rval (de_value t (strip x))); [|reflexivity]. cbn [obind].
    rewrite lval_lbind, rval_rbind, IH. destruct (rval (mapM (de_value t) (map strip xs))); reflexivity.
  Qed.

  Lemma lval_pos_elems {A} (proj : A -> ty) l : Forall (fun a => agrees de (proj a)) l -> forall xs i,
    Forall (fun x => tree_ok x = true) xs ->
    lval (pos_elems de proj l xs i) = option_map fst (rval (de_pos de_value proj l (map strip xs))).
  Proof.
    induction l as [|a l IH]; intros Fl xs i F; [reflexivity|]. inversion Fl; subst. cbn [pos_elems de_pos].
    destruct xs as [|x xs]; [reflexivity|]. inversion F; subst. cbn [map].
    rewrite lval_lbind, rval_rbind, lval_under, lval_wrap, (H1 x H3). destruct (rval (de_value (proj a) (strip x))); [|reflexivity]. cbn [obind].
    rewrite lval_lbind, rval_rbind, (IH H2 xs (S i) H4). destruct (rval (de_pos de_value proj l (map strip xs))) as [[vs rest]|]; reflexivity.
  Qed.

  (* ... with the constructor the visitor builds from the components *)
  Lemma lval_pos_read {A} (proj : A -> ty) (C : list sval -> sval) l xs i :
    Forall (fun a => agrees de (proj a)) l -> Forall (fun x => tree_ok x = true) xs ->
    lval (lmap C (pos_elems de proj l xs i)) = rval (rmap (fun r => C (fst r)) (de_pos de_value proj l (map strip xs))).
  Proof.
    intros Hl F. rewrite lval_lmap, rval_rmap, (lval_pos_elems proj l Hl xs i F).
    destruct (rval (de_pos de_value proj l (map strip xs))) as [[vs rest]|]; reflexivity.
  Qed.

  Lemma lval_map_entries kt vt es : agrees de vt -> Forall (fun e => tree_ok (en_val e) = true) es -> forall i,
    lval (map_entries de kt vt es i)
    = rval (mapM (fun kx => rbind (de_key kt (fst kx)) (fun k => rmap (fun v => (k, v)) (de_value vt (snd kx))))
                 (strip_entries es)).
  Proof.
    intros Hde F. unfold strip_entries. induction F as [|e es He _ IH]; intro i; [reflexivity|]. cbn [map_entries map mapM].
    rewrite lval_lbind, rval_rbind, lval_key_of_entry, lval_de_key, rval_rbind.
    cbn [fst snd]. change (fst (fst e)) with (en_key e).
    destruct (rval (de_key kt (en_key e))) as [k|]; [|reflexivity]. cbn [obind].
    rewrite lval_lbind, lval_value_of_entry, rval_rmap, (Hde _ He). change (snd e) with (en_val e).
    destruct (rval (de_value vt (strip (en_val e)))) as [v|]; [|reflexivity]. cbn [obind option_map].
    rewrite lval_lbind, rval_rbind, IH. destruct (rval (mapM _ (map (fun e0 : bytes * ospan * stree => (fst (fst e0), strip (snd e0))) es))); reflexivity.
  Qed.
End Visitors.

(* ---- structs: entries in table order (de_loc) against fields in field order (de_value) -------- *)

(* the field a key selects: the first one of that name *)
Definition sel_from (fs : list (bytes * ty)) (k : bytes) (i : nat) : option (nat * ty) :=
  find_name (fun j t => Some (j, t)) None k fs i.
Definition sel (fs : list (bytes * ty)) (k : bytes) : option (nat * ty) := sel_from fs k 0.

Lemma find_name_sel {R} (f : nat -> ty -> R) d k l : forall i,
  find_name f d k l i = match sel_from l k i with Some (j, t) => f j t | None => d end.
Proof.
  unfold sel_from. induction l as [|[n a] l IH]; intro i; [reflexivity|]. cbn [find_name].
  destruct (bytes_eqb n k); [reflexivity|apply IH].
Qed.

Lemma sel_from_some l k : forall i j t,
  sel_from l k i = Some (j, t) ->
  exists m, j = i + m /\ nth_error l m = Some (k, t) /\ mem_bytes k (map fst (firstn m l)) = false.
Proof.
  unfold sel_from. induction l as [|[n a] l IH]; intros i j t H; [discriminate|]. cbn [find_name] in H.
  destruct (bytes_eqb n k) eqn:E.
  - injection H as <- <-. apply bytes_eqb_eq in E. subst. exists 0. rewrite Nat.add_0_r. repeat split.
  - destruct (IH (S i) j t H) as (m & -> & Hn & Hm). exists (S m). split; [lia|]. split; [exact Hn|].
    cbn [firstn map fst mem_bytes]. rewrite Hm. rewrite orb_false_r.
    destruct (bytes_eqb k n) eqn:E2; [|reflexivity]. apply bytes_eqb_eq in E2. subst. rewrite bytes_eqb_refl in E. discriminate.
Qed.

Lemma sel_from_first l k : forall i m t,
  nth_error l m = Some (k, t) -> mem_bytes k (map fst (firstn m l)) = false -> sel_from l k i = Some (i + m, t).
Proof.
  unfold sel_from. induction l as [|[n a] l IH]; intros i m t Hn Hm; [destruct m; discriminate|].
  destruct m as [|m]; cbn [nth_error] in Hn.
  - injection Hn as -> ->. cbn [find_name]. rewrite bytes_eqb_refl, Nat.add_0_r. reflexivity.
  - cbn [firstn map fst mem_bytes] in Hm. apply orb_false_iff in Hm as [Hk Hm]. cbn [find_name].
    destruct (bytes_eqb n k) eqn:E.
    + apply bytes_eqb_eq in E. subst. rewrite bytes_eqb_refl in Hk. discriminate.
    + rewrite (IH (S i) m t Hn Hm). f_equal. f_equal. lia.
Qed.

Lemma sel_from_none l k : forall i, sel_from l k i = None <-> mem_bytes k (map fst l) = false.
Proof.
  unfold sel_from. induction l as [|[n a] l IH]; intro i; [split; reflexivity|]. cbn [find_name map fst mem_bytes].
  destruct (bytes_eqb n k) eqn:E.
  - apply bytes_eqb_eq in E. subst. rewrite bytes_eqb_refl. split; discriminate.
  - rewrite IH. destruct (bytes_eqb k n) eqn:E2; [|reflexivity].
    apply bytes_eqb_eq in E2. subst. rewrite bytes_eqb_refl in E. discriminate.
Qed.

Section StructAgree.
  Variable de : ty -> stree -> lres sval.
  Variable fs : list (bytes * ty).
  Hypothesis Hde : Forall (fun ft => agrees de (snd ft)) fs.

  (* the scan without the duplicate check *)
  Fixpoint scan_pure (es : list entry) : option (list (nat * sval)) :=
    match es with
    | [] => Some []
    | e :: es' =>
      match sel fs (en_key e) with
      | None => scan_pure es'
      | Some (j, t) => obind (lval (de t (en_val e))) (fun v => option_map (cons (j, v)) (scan_pure es'))
      end
    end.

  Lemma nodup_cons k l : nodup_bytes (k :: l) = true -> ~ In k l /\ nodup_bytes l = true.
  Proof. rewrite !nodup_bytes_NoDup. intro H. inversion H; subst. split; assumption. Qed.

  Lemma scan_eq es : forall i seen,
    nodup_bytes (map en_key es) = true ->
    (forall j e t, In j seen -> In e es -> sel fs (en_key e) <> Some (j, t)) ->
    lval (struct_scan de fs false es i seen) = scan_pure es.
  Proof.
    induction es as [|e es IH]; intros i seen ND Hs; [reflexivity|]. cbn [struct_scan scan_pure].
    cbn [map] in ND. apply nodup_cons in ND as [Hk ND].
    rewrite find_name_sel. fold (sel fs (en_key e)).
    destruct (sel fs (en_key e)) as [[j t]|] eqn:S.
    - assert (Hj : existsb (Nat.eqb j) seen = false).
      { destruct (existsb (Nat.eqb j) seen) eqn:Ex; [|reflexivity]. apply existsb_exists in Ex as (j' & Hin & Ej).
        apply Nat.eqb_eq in Ej. subst j'. exfalso. exact (Hs j e t Hin (or_introl eq_refl) S). }
      rewrite Hj, lval_lbind, lval_value_of_entry. destruct (lval (de t (en_val e))) as [v|]; [|reflexivity]. cbn [obind].
      rewrite lval_lbind, IH; [destruct (scan_pure es); reflexivity|exact ND|].
      intros j' e' t' [<-|Hin] He' S'.
      + (* e' selects the field e selected: same key *)
        apply sel_from_some in S as (m & Em & Hn & _). apply sel_from_some in S' as (m' & Em' & Hn' & _).
        simpl in Em, Em'. subst j. subst m'. rewrite Hn in Hn'. injection Hn' as Ek _. apply Hk. rewrite Ek. apply in_map. exact He'.
      + exact (Hs j' e' t' Hin (or_intror He') S').
    - apply IH; [exact ND|]. intros j' e' t' Hin He'. exact (Hs j' e' t' Hin (or_intror He')).
  Qed.

  (* what the scan found for field j: the value of the first entry selecting j *)
  Definition selects (j : nat) (e : entry) : bool :=
    match sel fs (en_key e) with Some (j', _) => Nat.eqb j' j | None => false end.

  Lemma scan_assoc es : forall got j, scan_pure es = Some got ->
    assoc_nat j got = match find (selects j) es with
                      | Some e => match sel fs (en_key e) with Some (_, t) => lval (de t (en_val e)) | None => None end
                      | None => None
                      end.
  Proof.
    induction es as [|e es IH]; intros got j H; [injection H as <-; reflexivity|]. cbn [scan_pure] in H. cbn [find].
    unfold selects at 1. destruct (sel fs (en_key e)) as [[j' t]|] eqn:S; [|apply IH; exact H].
    destruct (lval (de t (en_val e))) as [v|] eqn:V; [|discriminate]. cbn [obind] in H.
    destruct (scan_pure es) as [got'|]; [|discriminate]. injection H as <-. cbn [assoc_nat].
    destruct (Nat.eqb j' j); [rewrite S; symmetry; exact V|apply IH; reflexivity].
  Qed.

  Lemma scan_none es : scan_pure es = None ->
    exists e j t, In e es /\ sel fs (en_key e) = Some (j, t) /\ lval (de t (en_val e)) = None.
  Proof.
    induction es as [|e es IH]; intro H; [discriminate|]. cbn [scan_pure] in H.
    destruct (sel fs (en_key e)) as [[j t]|] eqn:S.
    - destruct (lval (de t (en_val e))) as [v|] eqn:V.
      + cbn [obind] in H. destruct (scan_pure es); [discriminate|].
        destruct (IH eq_refl) as (e' & j' & t' & Hin & S' & V'). exists e', j', t'. split; [right; exact Hin|split; assumption].
      + exists e, j, t. split; [left; reflexivity|split; assumption].
    - destruct (IH H) as (e' & j' & t' & Hin & S' & V'). exists e', j', t'. split; [right; exact Hin|split; assumption].
  Qed.
  Lemma scan_all_ok es : forall got, scan_pure es = Some got ->
    forall e j t, In e es -> sel fs (en_key e) = Some (j, t) -> exists v, lval (de t (en_val e)) = Some v.
  Proof.
    induction es as [|e0 es IH]; intros got H e j t Hin S; [destruct Hin|]. cbn [scan_pure] in H.
    destruct Hin as [->|Hin].
    - rewrite S in H. destruct (lval (de t (en_val e))) as [v|]; [eauto|discriminate].
    - destruct (sel fs (en_key e0)) as [[j0 t0]|]; [|exact (IH got H e j t Hin S)].
      destruct (lval (de t0 (en_val e0))); [|discriminate]. cbn [obind] in H.
      destruct (scan_pure es) as [got'|]; [|discriminate]. exact (IH got' eq_refl e j t Hin S).
  Qed.
End StructAgree.

Lemma mem_bytes_app k l l' : mem_bytes k (l ++ l') = mem_bytes k l || mem_bytes k l'.
Proof. induction l as [|x l IH]; [reflexivity|]. cbn [app mem_bytes]. rewrite IH, orb_assoc. reflexivity. Qed.

Lemma nodup_filter p l : nodup_bytes l = true -> nodup_bytes (filter p l) = true.
Proof. rewrite !nodup_bytes_NoDup. apply NoDup_filter. Qed.

Lemma dup_field_hit_false names es :
  nodup_bytes (map en_key es) = true -> dup_field_hit names (strip_entries es) = false.
Proof.
  intro H. unfold dup_field_hit. rewrite strip_keys. rewrite nodup_filter; [reflexivity|exact H].
Qed.

Lemma tab_get_strip_find f es :
  tab_get f (strip_entries es) = option_map (fun e => strip (en_val e)) (find (fun e => bytes_eqb (en_key e) f) es).
Proof.
  unfold strip_entries. induction es as [|e es IH]; [reflexivity|]. cbn [map tab_get find].
  change (fst (fst e)) with (en_key e). destruct (bytes_eqb (en_key e) f); [reflexivity|exact IH].
Qed.

Lemma find_ext' {A} (p q : A -> bool) l : (forall x, p x = q x) -> find p l = find q l.
Proof. intro H. induction l as [|x l IH]; [reflexivity|]. cbn [find]. rewrite H, IH. reflexivity. Qed.

Lemma find_none_all {A} (p : A -> bool) l : (forall x, p x = false) -> find p l = None.
Proof. intro H. induction l as [|x l IH]; [reflexivity|]. cbn [find]. rewrite H. exact IH. Qed.

Lemma find_unique es e : nodup_bytes (map en_key es) = true -> In e es ->
  find (fun e' => bytes_eqb (en_key e') (en_key e)) es = Some e.
Proof.
  induction es as [|x es IH]; intros ND Hin; [destruct Hin|]. cbn [map] in ND. cbn [find].
  pose proof (nodup_cons _ _ ND) as NDc.
  destruct NDc as [Hk ND']. destruct Hin as [->|Hin]; [rewrite bytes_eqb_refl; reflexivity|].
  destruct (bytes_eqb (en_key x) (en_key e)) eqn:E; [|apply IH; assumption].
  apply bytes_eqb_eq in E. exfalso. apply Hk. rewrite E. apply in_map. exact Hin.
Qed.

Section StructAgree2.
  Variable de : ty -> stree -> lres sval.
  Variable fs : list (bytes * ty).
  Hypothesis Hde : Forall (fun ft => agrees de (snd ft)) fs.

  Lemma selects_first j f t (e : entry) :
    nth_error fs j = Some (f, t) -> mem_bytes f (map fst (firstn j fs)) = false ->
    selects fs j e = bytes_eqb (en_key e) f.
  Proof.
    intros Hn Hm. unfold selects. destruct (bytes_eqb (en_key e) f) eqn:E.
    - apply bytes_eqb_eq in E. rewrite E. unfold sel. rewrite (sel_from_first fs f 0 j t Hn Hm). cbn [plus]. apply Nat.eqb_refl.
    - destruct (sel fs (en_key e)) as [[j' t']|] eqn:S; [|reflexivity].
      destruct (Nat.eqb j' j) eqn:Ej; [|reflexivity]. apply Nat.eqb_eq in Ej. subst j'.
      apply sel_from_some in S as (m & Em & Hn' & _). simpl in Em. subst m. rewrite Hn in Hn'. injection Hn' as Ek _.
      rewrite Ek, bytes_eqb_refl in E. discriminate.
  Qed.

  Lemma selects_nonfirst j f t (e : entry) :
    nth_error fs j = Some (f, t) -> mem_bytes f (map fst (firstn j fs)) = true -> selects fs j e = false.
  Proof.
    intros Hn Hm. unfold selects. destruct (sel fs (en_key e)) as [[j' t']|] eqn:S; [|reflexivity].
    destruct (Nat.eqb j' j) eqn:Ej; [|reflexivity]. apply Nat.eqb_eq in Ej. subst j'.
    apply sel_from_some in S as (m & Em & Hn' & Hm'). simpl in Em. subst m. rewrite Hn in Hn'. injection Hn' as Ek _.
    rewrite Ek in Hm. congruence.
  Qed.

  Lemma firstn_pre {A} (pre suf : list A) : firstn (length pre) (pre ++ suf) = pre.
  Proof. induction pre; cbn; [destruct suf; reflexivity|]. f_equal. assumption. Qed.

  Definition missing_l (f : bytes) (t : ty) : lres sval := match t with TOpt _ => LOk SNone | _ => raise (KMissing f) end.
  Lemma lval_missing f t : lval (missing_l f t) = rval (missing_field t).
  Proof. destruct t; reflexivity. Qed.

  Lemma finish_agree es got : scan_pure de fs es = Some got -> Forall (fun e => tree_ok (en_val e) = true) es ->
    forall suf pre seen, fs = pre ++ suf -> (forall f, mem_bytes f seen = mem_bytes f (map fst pre)) ->
    lval (struct_finish suf (length pre) got) = rval (de_fields_map de_value (strip_entries es) seen suf).
  Proof.
    intros Hs Fok. induction suf as [|[f t] suf IH]; intros pre seen Efs Hseen; [reflexivity|].
    cbn [struct_finish de_fields_map]. rewrite lval_lbind, rval_rbind.
    assert (Hn : nth_error fs (length pre) = Some (f, t)) by (rewrite Efs; apply nth_pre).
    assert (Hfirst : firstn (length pre) fs = pre) by (rewrite Efs; apply firstn_pre).
    assert (Hhead : lval (match assoc_nat (length pre) got with Some v => LOk v | None => missing_l f t end)
                    = rval (if mem_bytes f seen then missing_field t
                            else match tab_get f (strip_entries es) with Some x => de_value t x | None => missing_field t end)).
    { rewrite (scan_assoc de fs es got (length pre) Hs), Hseen.
      destruct (mem_bytes f (map fst pre)) eqn:M.
      - rewrite find_none_all; [apply lval_missing|]. intro e. apply (selects_nonfirst _ f t e Hn). rewrite Hfirst. exact M.
      - rewrite (find_ext' (selects fs (length pre)) (fun e => bytes_eqb (en_key e) f));
          [|intro e; apply (selects_first _ f t e Hn); rewrite Hfirst; exact M].
        rewrite tab_get_strip_find. destruct (find (fun e => bytes_eqb (en_key e) f) es) as [e|] eqn:Fd; [|apply lval_missing].
        cbn [option_map]. apply find_some in Fd as [Hin Ek]. apply bytes_eqb_eq in Ek.
        assert (S : sel fs (en_key e) = Some (length pre, t)).
        { rewrite Ek. unfold sel. rewrite (sel_from_first fs f 0 (length pre) t Hn); [reflexivity|rewrite Hfirst; exact M]. }
        destruct (scan_all_ok de fs es got Hs e _ _ Hin S) as [v V]. rewrite S, V. cbn [lval].
        rewrite Forall_forall in Hde. specialize (Hde (f, t) (nth_error_In _ _ Hn)). cbn [snd] in Hde.
        rewrite Forall_forall in Fok. rewrite <- (Hde (en_val e) (Fok e Hin)). symmetry. exact V. }
    unfold missing_l in Hhead. rewrite Hhead.
    destruct (rval (if mem_bytes f seen then missing_field t else _)) as [v|]; [|reflexivity]. cbn [obind].
    rewrite lval_lbind, rval_rbind.
    specialize (IH (pre ++ [(f, t)]) (f :: seen)). rewrite app_length, Nat.add_1_r in IH. rewrite IH.
    - destruct (rval (de_fields_map de_value (strip_entries es) (f :: seen) suf)); reflexivity.
    - rewrite <- app_assoc. exact Efs.
    - intro f'. cbn [mem_bytes]. rewrite map_app, mem_bytes_app, Hseen. cbn [map fst mem_bytes]. rewrite orb_false_r, orb_comm. reflexivity.
  Qed.

  Lemma fields_fail es' : forall suf pre seen, fs = pre ++ suf -> (forall f, mem_bytes f seen = mem_bytes f (map fst pre)) ->
    (exists m f t x, nth_error suf m = Some (f, t) /\ mem_bytes f (map fst (firstn (length pre + m) fs)) = false /\
                     tab_get f es' = Some x /\ rval (de_value t x) = None) ->
    rval (de_fields_map de_value es' seen suf) = None.
  Proof.
    induction suf as [|[f0 t0] suf IH]; intros pre seen Efs Hseen (m & f & t & x & Hn & Hm & Hg & Hv); [destruct m; discriminate|].
    cbn [de_fields_map]. rewrite rval_rbind. destruct m as [|m].
    - cbn [nth_error] in Hn. injection Hn as -> ->. rewrite Nat.add_0_r, Efs, firstn_pre in Hm.
      rewrite Hseen, Hm, Hg, Hv. reflexivity.
    - destruct (rval (if mem_bytes f0 seen then missing_field t0 else _)) as [v|]; [|reflexivity]. cbn [obind].
      rewrite rval_rbind. rewrite (IH (pre ++ [(f0, t0)]) (f0 :: seen)); [reflexivity| | |].
      + rewrite <- app_assoc. exact Efs.
      + intro f'. cbn [mem_bytes]. rewrite map_app, mem_bytes_app, Hseen. cbn [map fst mem_bytes]. rewrite orb_false_r, orb_comm. reflexivity.
      + exists m, f, t, x. cbn [nth_error] in Hn.
        replace (length (pre ++ [(f0, t0)]) + m) with (length pre + S m) by (rewrite app_length; cbn [length]; lia).
        repeat split; assumption.
  Qed.

  Theorem struct_agree es :
    nodup_bytes (map en_key es) = true -> Forall (fun e => tree_ok (en_val e) = true) es ->
    lval (struct_from_table de fs false es) = rval (de_struct_map de_value fs (strip_entries es)).
  Proof.
    intros ND Fok. unfold struct_from_table, de_struct_map. rewrite (dup_field_hit_false _ _ ND).
    rewrite lval_lbind, (scan_eq de fs es 0 [] ND); [|intros j e t []].
    destruct (scan_pure de fs es) as [got|] eqn:Sc; cbn [obind].
    - exact (finish_agree es got Sc Fok fs [] [] eq_refl (fun _ => eq_refl)).
    - symmetry. apply scan_none in Sc as (e & j & t & Hin & S & V).
      apply sel_from_some in S as (m & Em & Hn & Hm). simpl in Em. subst m.
      apply (fields_fail (strip_entries es) fs [] [] eq_refl (fun _ => eq_refl)).
      exists j, (en_key e), t, (strip (en_val e)). cbn [length plus]. repeat split; [exact Hn|exact Hm| |].
      + rewrite tab_get_strip_find, (find_unique es e ND Hin). reflexivity.
      + rewrite Forall_forall in Hde. specialize (Hde (en_key e, t) (nth_error_In _ _ Hn)). cbn [snd] in Hde.
        rewrite Forall_forall in Fok. rewrite <- (Hde (en_val e) (Fok e Hin)). exact V.
  Qed.
End StructAgree2.

(* ---- the remaining pieces ---- *)
Lemma first_extra_none names es : forall i,
  (first_extra_key names es i = None -> struct_keys_ok names (strip_entries es) = true) /\
  (forall x, first_extra_key names es i = Some x -> struct_keys_ok names (strip_entries es) = false).
Proof.
  induction es as [|e es IH]; intro i; [split; [reflexivity|discriminate]|].
  unfold strip_entries in *. cbn [first_extra_key map struct_keys_ok forallb fst]. change (fst (fst e)) with (en_key e).
  destruct (mem_bytes (en_key e) names); cbn [andb]; [apply IH|]. split; [discriminate|reflexivity].
Qed.

Lemma index_agree es : forall i n,
  option_map (map (fun ie : nat * entry => strip (en_val (snd ie)))) (lval (index_entries i n es))
  = index_keys n (strip_entries es).
Proof.
  unfold strip_entries. induction es as [|e es IH]; intros i n; [reflexivity|]. cbn [index_entries map index_keys].
  change (fst (fst e)) with (en_key e).
  destruct (parse_usize (en_key e)) as [j|]; [|reflexivity]. destruct (j =? n)%N; [|reflexivity].
  rewrite lval_lmap, <- (IH (S i) (n + 1)%N). destruct (lval (index_entries (S i) (n + 1) es)); reflexivity.
Qed.

Lemma lval_pos_entries de ts : Forall (agrees de) ts -> forall xs,
  Forall (fun ie : nat * entry => tree_ok (en_val (snd ie)) = true) xs ->
  lval (pos_entries de ts xs)
  = option_map fst (rval (de_pos de_value (fun t' => t') ts (map (fun ie : nat * entry => strip (en_val (snd ie))) xs))).
Proof.
  induction ts as [|t ts IH]; intros Ft xs F; [reflexivity|]. inversion Ft; subst. cbn [pos_entries de_pos].
  destruct xs as [|[i e] xs]; [reflexivity|]. inversion F; subst. cbn [map snd] in *.
  rewrite lval_lbind, rval_rbind, lval_under, lval_wrap, (H1 _ H3). destruct (rval (de_value t (strip (en_val e)))); [|reflexivity]. cbn [obind].
  rewrite lval_lbind, rval_rbind, (IH H2 xs H4). destruct (rval (de_pos de_value _ ts _)) as [[vs rest]|]; reflexivity.
Qed.

Lemma index_entries_ok es : forall i n xs, index_entries i n es = LOk xs ->
  Forall (fun e => tree_ok (en_val e) = true) es -> Forall (fun ie : nat * entry => tree_ok (en_val (snd ie)) = true) xs.
Proof.
  induction es as [|e es IH]; intros i n xs H F; [injection H as <-; constructor|]. inversion F; subst.
  cbn [index_entries] in H. destruct (parse_usize (en_key e)) as [j|]; [|discriminate]. destruct (j =? n)%N; [|discriminate].
  destruct (index_entries (S i) (n + 1) es) as [ys|] eqn:E; [|discriminate]. injection H as <-.
  constructor; [assumption|exact (IH _ _ _ E H3)].
Qed.

Lemma empty_agree y : tree_ok y = true -> sempty_container y = empty_container (strip y).
Proof.
  destruct y as [sp x|sp xs|sp es]; cbn [tree_ok strip sempty_container empty_container]; intro H.
  - destruct x; try discriminate; reflexivity.
  - destruct xs; reflexivity.
  - destruct es; reflexivity.
Qed.

Lemma lval_de_datetime s : tree_ok s = true -> lval (de_datetime_l s) = rval (de_datetime (strip s)).
Proof.
  intro Ok. destruct s as [sp x|sp xs|sp es]; cbn [de_datetime_l strip].
  - cbn [tree_ok] in Ok. destruct x; try discriminate; cbn [de_datetime]; rewrite lval_wrap; try reflexivity. apply lval_de_dt.
  - rewrite lval_wrap. reflexivity.
  - destruct es as [|e es]; [rewrite lval_wrap; reflexivity|]. cbn [map de_datetime].
    change (fst (fst e)) with (en_key e). rewrite lval_wrap, lval_lbind, lval_key_of_entry.
    destruct (bytes_eqb (en_key e) DT_FIELD); [|reflexivity]. cbn [lval obind].
    rewrite lval_value_of_entry, lval_wrap. change (snd e) with (en_val e).
    apply tree_ok_tab in Ok as [_ F]. inversion F; subst.
    destruct (en_val e) as [sp' x'|sp' xs'|sp' es']; cbn [strip]; try reflexivity.
    destruct x'; try reflexivity. apply lval_de_dt.
Qed.

(* ---- the deserializer ---- *)
Theorem de_loc_refines c : nodeny c -> forall t s, tree_ok s = true ->
  lval (de_loc c t s) = rval (de_value t (strip s)).
Proof.
  intro ND.
  induction t using ty_ind2 with
      (Q := fun var => forall y, tree_ok y = true -> lval (de_payload c var y) = rval (De.de_payload var (strip y)));
    intros s Ok;
    try (cbn [de_loc]; rewrite lval_wrap; apply lval_visit_scalar; [reflexivity|exact Ok]).
  - (* datetime *)
    cbn [de_loc de_value]. rewrite lval_lbind, rval_rbind, (lval_de_datetime s Ok).
    destruct (rval (de_datetime (strip s))) as [d|]; [|reflexivity]. cbn [obind]. unfold dt_kind_check.
    destruct (dt_kind_ok k d); reflexivity.
  - (* option *)
    cbn [de_loc de_value]. destruct (opt_overwrite c); [rewrite lval_wrap_always|rewrite lval_wrap];
      rewrite lval_lmap, rval_rmap, (IHt s Ok); reflexivity.
  - (* seq *)
    cbn [de_loc de_value]. rewrite lval_wrap. destruct s as [sp x|sp xs|sp es].
    + cbn [tree_ok] in Ok. cbn [strip]. destruct x; try discriminate; reflexivity.
    + cbn [strip]. rewrite lval_lmap, rval_rmap. f_equal. apply lval_seq_elems; [exact IHt|apply (tree_ok_arr sp); exact Ok].
    + reflexivity.
  - (* tuple *)
    cbn [de_loc de_value]. rewrite lval_wrap. destruct s as [sp x|sp xs|sp es].
    + cbn [tree_ok] in Ok. cbn [strip]. destruct x; try discriminate; reflexivity.
    + exact (lval_pos_read (de_loc c) (fun t' => t') SSeq ts xs 0 H (tree_ok_arr sp xs Ok)).
    + reflexivity.
  - (* map *)
    cbn [de_loc de_value]. rewrite lval_wrap. destruct s as [sp x|sp xs|sp es].
    + cbn [tree_ok] in Ok. cbn [strip]. destruct x; try discriminate; reflexivity.
    + reflexivity.
    + rewrite strip_tab, lval_lmap, rval_rmap. f_equal.
      apply lval_map_entries; [exact IHt2|apply (tree_ok_tab sp es Ok)].
  - (* struct *)
    cbn [de_loc de_value]. destruct (private_name n); [reflexivity|]. rewrite lval_wrap. destruct s as [sp x|sp xs|sp es].
    + cbn [tree_ok] in Ok. cbn [strip]. destruct x; try discriminate; reflexivity.
    + exact (lval_pos_read (de_loc c) (fun ft => snd ft) SRec fs xs 0 H (tree_ok_arr sp xs Ok)).
    + rewrite strip_tab, lval_lmap, rval_rmap, ND. f_equal. destruct (tree_ok_tab sp es Ok) as [N F].
      apply struct_agree; assumption.
  - (* newtype *)
    cbn [de_loc de_value]. rewrite lval_wrap, lval_lmap, rval_rmap, (IHt s Ok). reflexivity.
  - (* tuple struct *)
    cbn [de_loc de_value]. rewrite lval_wrap. destruct s as [sp x|sp xs|sp es].
    + cbn [tree_ok] in Ok. cbn [strip]. destruct x; try discriminate; reflexivity.
    + exact (lval_pos_read (de_loc c) (fun t' => t') SSeq ts xs 0 H (tree_ok_arr sp xs Ok)).
    + reflexivity.
  - (* enum *)
    cbn [de_loc de_value]. rewrite lval_wrap. destruct s as [sp x|sp xs|sp es].
    + cbn [tree_ok] in Ok. cbn [strip]. destruct x; try discriminate; try reflexivity.
      apply (find_name_agree lval rval); [reflexivity|]. intros j a _. destruct a; reflexivity.
    + reflexivity.
    + rewrite strip_tab. destruct es as [|e [|e' es]]; try reflexivity. unfold strip_entries. cbn [map].
      change (fst (fst e)) with (en_key e). change (snd e) with (en_val e).
      destruct (tree_ok_tab sp [e] Ok) as [_ F]. inversion F; subst.
      apply (find_name_agree lval rval); [reflexivity|]. intros j var Hin.
      rewrite lval_lmap, rval_rmap, lval_under. f_equal.
      rewrite Forall_forall in H. exact (H (en_key e, var) Hin (en_val e) H2).
  - (* unit variant *)
    cbn [de_payload De.de_payload]. rewrite (empty_agree s Ok). destruct (empty_container (strip s)); reflexivity.
  - (* newtype variant *)
    cbn [de_payload De.de_payload]. rewrite lval_wrap. apply IHt. exact Ok.
  - (* tuple variant *)
    cbn [de_payload De.de_payload]. destruct s as [sp x|sp xs|sp es].
    + cbn [tree_ok] in Ok. cbn [strip]. destruct x; try discriminate; reflexivity.
    + cbn [strip]. rewrite map_length. destruct (Nat.eqb (length xs) (length ts)); [|reflexivity].
      exact (lval_pos_read (de_loc c) (fun t' => t') SSeq ts xs 0 H (tree_ok_arr sp xs Ok)).
    + rewrite strip_tab. destruct (tree_ok_tab sp es Ok) as [_ F]. rewrite lval_lbind.
      pose proof (index_agree es 0 0%N) as IA. destruct (index_entries 0 0 es) as [xs|] eqn:IE; cbn [lval option_map obind] in *.
      * rewrite <- IA. rewrite map_length. destruct (Nat.eqb (length xs) (length ts)); [|reflexivity].
        rewrite lval_lmap, rval_rmap.
        match goal with
        | |- context [lval (pos_entries ?d ts xs)] =>
          replace (lval (pos_entries d ts xs))
            with (option_map fst (rval (de_pos de_value (fun t' => t') ts (map (fun ie : nat * entry => strip (en_val (snd ie))) xs))))
            by (symmetry; exact (lval_pos_entries _ ts H xs (index_entries_ok es 0 0%N xs IE F)))
        end.
        destruct (rval (de_pos de_value (fun t' => t') ts _)) as [[vs rest]|]; reflexivity.
      * rewrite <- IA. reflexivity.
  - (* struct variant *)
    cbn [de_payload De.de_payload]. destruct s as [sp x|sp xs|sp es].
    + cbn [tree_ok] in Ok. cbn [strip]. destruct x; try discriminate; try reflexivity; rewrite lval_wrap; reflexivity.
    + cbn [strip]. rewrite lval_wrap. exact (lval_pos_read (de_loc c) (fun ft => snd ft) SRec fs xs 0 H (tree_ok_arr sp xs Ok)).
    + rewrite strip_tab. destruct (tree_ok_tab sp es Ok) as [N F].
      destruct (first_extra_none (map fst fs) es 0) as [E1 E2].
      destruct (first_extra_key (map fst fs) es 0) as [[i e]|].
      * rewrite (E2 _ eq_refl), lval_wrap. reflexivity.
      * rewrite (E1 eq_refl), lval_wrap, lval_lmap, rval_rmap. f_equal. apply struct_agree; assumption.
Qed.
