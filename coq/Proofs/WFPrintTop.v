(* Proofs/WFPrintTop.v — WF backbone, top: a well-formed tree prints as a TOML text that has a derivation denoting
   the tree's data (`WF_print_derivation`); hence (C01_complete, C02_tree) the text is accepted and decodes to the
   same data (`WF_print_parse`). *)
From TV Require Import Base.Prelude Gen.Consts Spec.Defs Spec.Syntax Spec.WF.
From TV Require Import Model.Tree Model.Document Model.Encode.
From TV Require Import Proofs.GrammarBase Proofs.GrammarTop.
From TV Require Import Proofs.WFPrintKey
                       Proofs.WFTree Proofs.WFPrintLine Proofs.WFPrintDoc.
Require Import Lia NArith.

Local Notation section := (tbl * list key * bool)%type.

(* ---- sorting by position leaves the order of the walk alone when the positions do not decrease ---------------------- *)
Lemma nondec_tail a l : nondecreasing (a :: l) -> nondecreasing l.
Proof. destruct l; cbn; tauto. Qed.
Lemma nondec_prefix : forall l1 x l2, nondecreasing (l1 ++ x :: l2) -> Forall (fun y => (y <= x)%N) l1.
Proof.
  induction l1 as [|a l1 IH]; intros x l2 H; [constructor|]. cbn [app] in H. pose proof (IH x l2 (nondec_tail _ _ H)) as F.
  constructor; [|exact F]. destruct l1 as [|b l1]; cbn [app nondecreasing] in H.
  - tauto.
  - inversion F; subst. destruct H as [H _]. lia.
Qed.
Lemma insert_sorted_last {A} (x : N * A) acc : Forall (fun y => (fst y <= fst x)%N) acc -> insert_sorted x acc = acc ++ [x].
Proof.
  induction 1 as [|y acc Hy _ IH]; [reflexivity|]. cbn [insert_sorted app]. destruct (N.ltb_spec (fst x) (fst y)); [lia|]. rewrite IH. reflexivity.
Qed.
Lemma fold_insert_sorted {A} : forall (l acc : list (N * A)),
  nondecreasing (map fst (acc ++ l)) -> fold_left (fun a x => insert_sorted x a) l acc = acc ++ l.
Proof.
  induction l as [|x l IH]; intros acc H; [rewrite app_nil_r; reflexivity|]. cbn [fold_left].
  rewrite insert_sorted_last.
  - rewrite IH; rewrite <- app_assoc; [reflexivity|exact H].
  - rewrite map_app in H. cbn [map] in H. apply nondec_prefix in H. rewrite Forall_map in H. exact H.
Qed.
Lemma stable_sort_sorted {A} (l : list (N * A)) : nondecreasing (map fst l) -> stable_sort l = l.
Proof. intro H. unfold stable_sort. apply (fold_insert_sorted l []). exact H. Qed.

Lemma assign_positions_snd : forall (l : list section) n, map snd (assign_positions n l) = l.
Proof. induction l as [|[[t p] a] l IH]; intro n; [reflexivity|]. cbn [assign_positions map snd]. rewrite IH. reflexivity. Qed.

(* what Display writes for a tree whose sections come in the order of the walk *)
Lemma display_ordered root trailing :
  order_ok root ->
  display_document root trailing
  = decor_prefix (t_decor root) (fst DEFAULT_ROOT_DECOR)
    ++ vts (sections root [] false) true
    ++ decor_suffix (t_decor root) (snd DEFAULT_ROOT_DECOR)
    ++ raw_encode trailing [].
Proof.
  intro Ho. unfold display_document. rewrite doc_sections_eq. rewrite (stable_sort_sorted _ Ho). rewrite visit_tables_vts, assign_positions_snd.
  reflexivity.
Qed.

(* ---- the document around its sections ----------------------------------------------------------------------------------- *)
(* whatever sections L are written between the root's decor and the trailing text, in whatever order *)
Lemma doc_derivation root trailing L G :
  tbl_wf true root -> raw_ok SDocTrail trailing -> derives L G ->
  exists stmts, toml_text (decor_prefix (t_decor root) (fst DEFAULT_ROOT_DECOR) ++ vts L true
                           ++ decor_suffix (t_decor root) (snd DEFAULT_ROOT_DECOR) ++ raw_encode trailing []) stmts
                /\ map stmt_den stmts = G /\ forallb stmt_ok stmts = true /\ within_limits stmts = true.
Proof.
  intros Hw Htr HL.
  assert (Hdec : decor_ok SLines SLines (t_decor root)) by (destruct root; exact (proj1 Hw)). destruct Hdec as [Hdp Hds].
  assert (Hrest : tail_tok (decor_suffix (t_decor root) (snd DEFAULT_ROOT_DECOR) ++ raw_encode trailing []) []).
  { apply tail_lines; [apply (decor_suffix_ok SLines); [exact Hds|apply ln_last; reflexivity]|].
    apply tail_doc_trail. apply (raw_ok_enc SDocTrail). exact Htr. }
  destruct (HL true _ _ Hrest) as (ls & T & E & O & W). rewrite app_nil_r in T.
  exists ls. split; [|auto]. apply toml_no_bom, tail_toml.
  apply tail_lines; [apply (decor_prefix_ok SLines); [exact Hdp|apply ln_last; reflexivity]|exact T].
Qed.

(* a text with a valid derivation within the limits is accepted and decodes to what the derivation defines *)
Lemma derivation_parse s stmts T :
  toml_text s stmts -> verdict stmts = Valid T -> within_limits stmts = true -> exists d, parse_document s = POk d /\ abs_doc d = T.
Proof. intros Ht V W. destruct (c01_complete _ _ _ Ht V W) as (d & P). exists d. split; [exact P|exact (c02_tree _ _ _ _ P Ht V)]. Qed.

(* ---- THE derivation -------------------------------------------------------------------------------------------------------- *)
Theorem WF_print_derivation root trailing :
  WFdoc root trailing ->
  exists stmts, toml_text (display_document root trailing) stmts
                /\ verdict stmts = Valid (abs_doc_of root)
                /\ within_limits stmts = true.
Proof.
  intros [(Hd & Hw & Hl & Ho) Htr]. rewrite (display_ordered root trailing Ho).
  destruct (doc_derivation root trailing _ _ Hw Htr (derives_list _ (root_sections_ok root Hd Hw Hl))) as (ls & T & E & O & W).
  exists ls. split; [exact T|split; [|exact W]].
  unfold verdict. rewrite O, E, (root_stmts root Hd Hw). apply tree_defines, Hw.
Qed.

(* ---- the printed text is accepted and decodes to the tree's data ------------------------------------------------------- *)
Theorem WF_print_parse root trailing :
  WFdoc root trailing ->
  exists d, parse_document (display_document root trailing) = POk d /\ abs_doc d = abs_doc_of root.
Proof. intro H. destruct (WF_print_derivation root trailing H) as (stmts & T & V & W). exact (derivation_parse _ _ _ T V W). Qed.
