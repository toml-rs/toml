(* Proofs/WFPrintLine.v — WF backbone: the lines Display writes are expressions of the grammar.
     tail_tok t l     t is a TOML text making the statements l, also after more blanks in front of it (what can
                      follow a line break);
   a `key = value` line and a `[header]` / `[[header]]` line of a well-formed tree, each with the comment and blank
   lines its decor carries in front of it, put in front of such a text give such a text; the document's trailing
   text is one.  No such text starts with a byte-order mark. *)
From TV Require Import Base.Prelude Gen.Consts Spec.Lex Spec.Defs Spec.Syntax Spec.WF.
From TV Require Import Model.Tree Model.Encode.
From TV Require Import Proofs.GrammarBase.
From TV Require Import Proofs.WFPrintKey Proofs.WFPrintValue.
From TV Require Import Proofs.ModelFacts.
Require Import Lia.

Definition tail_tok (t : bytes) (l : list astmt) : Prop := forall w, ws_tok w -> toml_tok (w ++ t) l.

Lemma tail_toml t l : tail_tok t l -> toml_tok t l.
Proof. intro H. exact (H [] ws_nil). Qed.

Lemma tail_doc_trail d : doc_trail_tok d -> tail_tok d [].
Proof.
  induction 1 as [t (w' & c & -> & Hw' & Hc)|w' c t Hw' Hc Ht IH]; intros w Hw.
  - rewrite app_assoc. apply toml_one. apply ex_blank; [apply ws_app; assumption|exact Hc].
  - replace (w ++ w' ++ c ++ [x0a] ++ t) with (((w ++ w') ++ c) ++ [x0a] ++ t) by (rewrite <- !app_assoc; reflexivity).
    change (@nil astmt) with (@nil astmt ++ []). apply toml_more; [apply ex_blank; [apply ws_app; assumption|exact Hc]|left; reflexivity|].
    exact (IH [] ws_nil).
Qed.

Lemma tail_lines L t l : lines_tok L -> tail_tok t l -> tail_tok (L ++ t) l.
Proof.
  intros HL Ht. induction HL as [w' Hw'|w' c rest Hw' Hc Hrest IH]; intros w Hw.
  - rewrite app_assoc. apply Ht. apply ws_app; assumption.
  - replace (w ++ (w' ++ c ++ [x0a] ++ rest) ++ t) with (((w ++ w') ++ c) ++ [x0a] ++ (rest ++ t)) by (rewrite <- !app_assoc; reflexivity).
    change l with ([] ++ l). apply toml_more; [apply ex_blank; [apply ws_app; assumption|exact Hc]|left; reflexivity|].
    exact (IH [] ws_nil).
Qed.

Lemma tail_stmt e s t l : (forall w, ws_tok w -> expression_tok (w ++ e) [s]) -> tail_tok t l -> tail_tok (e ++ [x0a] ++ t) (s :: l).
Proof.
  intros He Ht w Hw. rewrite app_assoc. change (s :: l) with ([s] ++ l). apply toml_more; [apply He, Hw|left; reflexivity|].
  exact (Ht [] ws_nil).
Qed.

(* ---- a key/value line ------------------------------------------------------------------------------------------------- *)
Definition entry_text (kp : list key) (v : value) : bytes :=
  encode_key_path kp DEFAULT_KEY_DECOR ++ [x3d] ++ encode_value (S (value_size v)) v DEFAULT_VALUE_DECOR ++ [x0a].

(* what holds of every line of a well-formed section *)
Definition line_ok (kp : list key) (v : value) : Prop :=
  kp <> [] /\ Forall (key_wf true) kp /\ value_wf CLine v /\ value_lim 0 v /\ length kp < LIMIT.

Lemma key_wf_mids line ks : Forall (key_wf line) ks -> Forall key_mid ks.
Proof. intro H. eapply Forall_impl; [|exact H]. intros k Hk. exact (key_wf_mid line k Hk). Qed.

Lemma entry_tail kp v rest l :
  line_ok kp v -> tail_tok rest l ->
  exists a, tail_tok (entry_text kp v ++ rest) (SKeyVal (ktexts kp) a :: l)
            /\ den a = absv v /\ aval_ok a = true /\ within 0 a = true.
Proof.
  intros (Hne & Hks & Hv & Hl & Hlen) Hrest.
  destruct (encode_key_path_shape kp DEFAULT_KEY_DECOR Hne (key_wf_mids _ _ Hks)) as (last & K & Hin & EK & TK).
  destruct (value_derivation v CLine 0 DEFAULT_VALUE_DECOR Hv Hl dflt_value) as (p & t & s & a & EV & Hp & Hs & Tv & Hd & Ha & Hw).
  exists a. split; [|auto]. rewrite Forall_forall in Hks. destruct (Hks last Hin) as (_ & _ & [Hlp Hls]).
  cbn [pre_slot suf_slot slot_ok] in Hp, Hs. destruct Hs as (w2 & c & -> & Hw2 & Hc).
  unfold entry_text. rewrite EK, EV.
  replace (((decor_prefix (k_leaf last) (fst DEFAULT_KEY_DECOR) ++ K ++ decor_suffix (k_leaf last) (snd DEFAULT_KEY_DECOR))
           ++ [x3d] ++ (p ++ t ++ w2 ++ c) ++ [x0a]) ++ rest)
    with (decor_prefix (k_leaf last) (fst DEFAULT_KEY_DECOR)
          ++ ((K ++ decor_suffix (k_leaf last) (snd DEFAULT_KEY_DECOR) ++ [x3d] ++ p ++ t) ++ w2 ++ c) ++ [x0a] ++ rest)
    by (rewrite <- !app_assoc; reflexivity).
  apply tail_lines; [apply (decor_prefix_ok SLines); [exact Hlp|apply ln_last; reflexivity]|].
  apply tail_stmt; [|exact Hrest]. intros w Hw0. apply ex_keyval; [exact Hw0| |exact Hw2|exact Hc].
  exists K, (decor_suffix (k_leaf last) (snd DEFAULT_KEY_DECOR)), p, t. split; [reflexivity|]. split; [exact TK|].
  split; [apply (decor_suffix_ok SWs); [exact Hls|reflexivity]|]. split; [exact Hp|exact Tv].
Qed.

(* the lines of a section *)
Lemma entries_tail : forall L rest l,
  Forall (fun pv => line_ok (fst pv) (snd pv)) L -> tail_tok rest l ->
  exists ls, tail_tok (flat_map (fun pv => entry_text (fst pv) (snd pv)) L ++ rest) (ls ++ l)
             /\ map stmt_den ls = map (fun pv => SKeyVal (ktexts (fst pv)) (absv (snd pv))) L
             /\ forallb stmt_ok ls = true /\ within_limits ls = true.
Proof.
  induction L as [|[kp v] L IH]; intros rest l HL Hrest.
  - exists []. repeat split; auto.
  - inversion HL as [|? ? H1 H2]; subst. destruct (IH rest l H2 Hrest) as (ls & Hls & Eden & Hok & Hlim).
    cbn [fst snd] in H1. destruct (entry_tail kp v _ _ H1 Hls) as (a & Ha & Hd & Hao & Hw).
    exists (SKeyVal (ktexts kp) a :: ls). cbn [flat_map fst snd map app stmt_den]. rewrite <- app_assoc. split; [exact Ha|].
    split; [rewrite Hd, Eden; reflexivity|]. split; [cbn [forallb stmt_ok]; rewrite Hao, Hok; reflexivity|].
    unfold within_limits in *. cbn [forallb stmt_within]. rewrite Hw, Hlim.
    destruct H1 as (_ & _ & _ & _ & Hlen). unfold ktexts. rewrite map_length. apply Nat.ltb_lt in Hlen. rewrite Hlen. reflexivity.
Qed.

(* ---- a header line ----------------------------------------------------------------------------------------------------- *)
Definition header_text (hp : list key) (d : decor) (arr first : bool) : bytes :=
  let default := if first then ([], snd DEFAULT_TABLE_DECOR) else DEFAULT_TABLE_DECOR in
  decor_prefix d (fst default) ++ encode_key_comments hp ++ (if arr then [x5b; x5b] else [x5b])
  ++ encode_header_key_path hp DEFAULT_KEY_PATH_DECOR ++ (if arr then [x5d; x5d] else [x5d])
  ++ decor_suffix d (snd default) ++ [x0a].

Lemma oraw_ok_plain sl o : oraw_ok sl o -> match o with Some (RSpanned _ _) => False | _ => True end.
Proof. destruct o as [[| |]|]; cbn; auto. Qed.

Lemma header_tail hp d arr first rest l :
  hp <> [] -> Forall (key_wf true) hp -> decor_ok SLines SLineTrail d -> length hp < LIMIT ->
  tail_tok rest l ->
  tail_tok (header_text hp d arr first ++ rest) ((if arr then SArrHeader (ktexts hp) else SHeader (ktexts hp)) :: l).
Proof.
  intros Hne Hks [Hdp Hds] Hlen Hrest.
  destruct (encode_header_key_path_shape hp DEFAULT_KEY_PATH_DECOR Hne (key_wf_mids _ _ Hks)) as (last & rtl & K & R & Hin & EK & TK).
  rewrite Forall_forall in Hks. destruct (Hks last Hin) as (_ & _ & [Hlp Hls]).
  set (dflt := if first then ([], snd DEFAULT_TABLE_DECOR) else DEFAULT_TABLE_DECOR).
  assert (Hpre : lines_tok (decor_prefix d (fst dflt))).
  { apply (decor_prefix_ok SLines); [exact Hdp|]. subst dflt. destruct first; cbn [fst DEFAULT_TABLE_DECOR].
    - apply ln_last; reflexivity.
    - apply (ln_more [] [] []); [reflexivity|left; reflexivity|apply ln_last; reflexivity]. }
  assert (Hsuf : line_trail_tok (decor_suffix d (snd dflt))).
  { apply (decor_suffix_ok SLineTrail); [exact Hds|]. subst dflt. destruct first; cbn [snd DEFAULT_TABLE_DECOR]; apply ws_line_trail; reflexivity. }
  destruct Hsuf as (w2 & c & Es & Hw2 & Hc).
  pose (open_ := if arr then [x5b; x5b] else [x5b]). pose (close_ := if arr then [x5d; x5d] else [x5d]).
  pose (kc := if raw_blank (d_prefix (k_leaf last)) then [] else decor_prefix (k_leaf last) []).
  pose (w1 := if raw_blank (d_prefix (k_leaf last)) then decor_prefix (k_leaf last) (fst DEFAULT_KEY_PATH_DECOR) else fst DEFAULT_KEY_PATH_DECOR).
  pose (ws2 := decor_suffix (k_leaf last) (snd DEFAULT_KEY_PATH_DECOR)).
  assert (E : header_text hp d arr first ++ rest
              = decor_prefix d (fst dflt) ++ kc ++ ((open_ ++ w1 ++ K ++ ws2 ++ close_) ++ w2 ++ c) ++ [x0a] ++ rest).
  { unfold header_text. cbv zeta. unfold encode_key_comments. rewrite R, EK. fold dflt. rewrite Es. subst open_ close_ kc w1 ws2.
    rewrite <- !app_assoc. reflexivity. }
  rewrite E. clear E.
  assert (Hw1 : ws_tok w1).
  { subst w1. destruct (raw_blank (d_prefix (k_leaf last))) eqn:B; [|reflexivity].
    apply blank_prefix_ws; [exact B|reflexivity|apply (oraw_ok_plain SLines), Hlp]. }
  assert (Hws2 : ws_tok ws2) by (apply (decor_suffix_ok SWs); [exact Hls|reflexivity]).
  assert (Hkc : lines_tok kc).
  { subst kc. destruct (raw_blank (d_prefix (k_leaf last))); [apply ln_last; reflexivity|].
    apply (decor_prefix_ok SLines); [exact Hlp|apply ln_last; reflexivity]. }
  apply tail_lines; [exact Hpre|]. apply tail_lines; [exact Hkc|]. apply tail_stmt; [|exact Hrest].
  intros w Hw0. subst open_ close_. destruct arr.
  - apply ex_array_table; [exact Hw0| |exact Hw2|exact Hc]. exists w1, K, ws2. rewrite <- ?app_assoc. auto.
  - apply ex_std_table; [exact Hw0| |exact Hw2|exact Hc]. exists w1, K, ws2. rewrite <- ?app_assoc. auto.
Qed.

(* ---- no byte-order mark -------------------------------------------------------------------------------------------------- *)
Definition head_ne (t : bytes) : Prop := match t with b :: _ => b <> xef | [] => True end.
Lemma head_ne_app a b : head_ne a -> (a = [] -> head_ne b) -> head_ne (a ++ b).
Proof. destruct a; cbn; auto. Qed.
Lemma ws_head w : ws_tok w -> head_ne w.
Proof.
  destruct w as [|b w]; [exact (fun _ => I)|]. unfold ws_tok, all. cbn [forallb head_ne]. intros H ->. discriminate.
Qed.
Lemma opt_comment_head c : opt_comment c -> head_ne c.
Proof. intros [->|(u & -> & _)]; cbn; [exact I|discriminate]. Qed.
Lemma simple_key_head t k : simple_key_tok t k -> t <> [] /\ head_ne t.
Proof.
  intros [(_ & body & -> & _) | [(_ & body & -> & _) | [[Hne Ha] _]]].
  - split; cbn; discriminate.
  - split; cbn; discriminate.
  - split; [exact Hne|]. destruct t as [|b t']; [exact I|]. unfold all in Ha. cbn [forallb] in Ha. apply andb_true_iff in Ha as [Hb _].
    cbn. intros ->. discriminate.
Qed.
Lemma key_head t ks : key_tok t ks -> t <> [] /\ head_ne t.
Proof.
  intros [t0 k H | t0 k w1 w2 u ks0 H _ _ _]; destruct (simple_key_head _ _ H) as [Hne Hh]; [auto|].
  split; [destruct t0; [congruence|discriminate]|apply head_ne_app; [exact Hh|congruence]].
Qed.
Lemma expression_head e l : expression_tok e l -> head_ne e.
Proof.
  intros [w c Hw Hc|w t p a w2 c Hw (k & w1 & w3 & v & -> & Hk & _) _ _|w t p w2 c Hw (w1 & k & w3 & -> & _) _ _|w t p w2 c Hw (w1 & k & w3 & -> & _) _ _].
  - apply head_ne_app; [apply ws_head, Hw|intros _; apply opt_comment_head, Hc].
  - apply head_ne_app; [apply ws_head, Hw|intros _]. destruct (key_head _ _ Hk) as [Hne Hh]. rewrite <- !app_assoc.
    apply head_ne_app; [exact Hh|congruence].
  - apply head_ne_app; [apply ws_head, Hw|intros _]. cbn. discriminate.
  - apply head_ne_app; [apply ws_head, Hw|intros _]. cbn. discriminate.
Qed.
Lemma toml_head t l : toml_tok t l -> head_ne t.
Proof.
  intros [e l0 He|e l0 nl t0 l' He Hnl _]; [apply (expression_head _ _ He)|].
  apply head_ne_app; [apply (expression_head _ _ He)|intros _]. destruct Hnl as [->| ->]; cbn; discriminate.
Qed.
Lemma toml_no_bom t l : toml_tok t l -> toml_text t l.
Proof.
  intro H. unfold toml_text. pose proof (toml_head t l H) as Hh. unfold strip_bom.
  destruct t as [|b0 [|b1 [|b2 r]]]; try exact H. cbn in Hh. destruct (byte_eqb b0 xef) eqn:E; [|exact H].
  apply byte_eqb_eq in E. contradiction.
Qed.
