(* Proofs/SerdeRTTv.v — C07, toml::Value::try_from / Table::try_from read back by try_into:
     * a value without any documented unsupported shape (`supported`) is accepted and round-trips;
     * a failure names a documented unsupported shape;
     * (since the repair of C07-tryfrom-nested-none-dropped) a value WITH such a shape is refused, so that the family
       accepts exactly the `supported` values and whatever it accepts round-trips — on types whose map keys are not
       `char` / `Option<_>` (`doc_keys`: SerializeMap::serialize_key accepts those, the document serializers do not). *)
From TV Require Import Base.Prelude Model.DatetimeStd Model.SerNum Spec.SerdeData Model.Ser Model.De Proofs.NumbersRT_Ser
  Proofs.SerdeRTBase Proofs.SerdeRTEq Proofs.SerdeRTRefuse Proofs.SerdeRTBTree Proofs.SerdeRTKeys Proofs.SerdeRTFamily.
From Coq Require Import Permutation Sorted.

(* ---- unfolding equations ---- *)
Definition tv_fields (fs : list (bytes * ty)) (vs : list sval) : result (list (option (bytes * tomlval))) :=
  zipM (fun ft v' => rmap (optmap (fun x => (fst ft, x))) (ser_map_value tv_ser (snd ft) v')) fs vs.
Definition tv_entries (kt vt : ty) (es : list (sval * sval)) : result (list (option (bytes * tomlval))) :=
  mapM (fun kv => rbind (tv_key (tv_ser kt (fst kv))) (fun k =>
                  rmap (optmap (fun x => (k, x))) (ser_map_value tv_ser vt (snd kv)))) es.
Definition btable_of (ps : list (option (bytes * tomlval))) : tomlval := VTab (btree_of_pairs (somes_pairs ps)).
Definition tv_variant (p : sval) (nv : bytes * variant) : result tomlval :=
  match snd nv with
  | VUnit => match p with SUnit => Ok (VStr (fst nv)) | _ => Err EBadCase end
  | _ => rmap (fun x => VTab [(fst nv, x)]) (tv_payload (snd nv) p)
  end.

Lemma ts_opt_some t v : tv_ser (TOpt t) (SSome v) = tv_ser t v. Proof. reflexivity. Qed.
Lemma ts_seq t vs : tv_ser (TSeq t) (SSeq vs) = rmap VArr (mapM (tv_ser t) vs). Proof. reflexivity. Qed.
Lemma ts_tuple ts vs : tv_ser (TTuple ts) (SSeq vs) = rmap VArr (zipM tv_ser ts vs). Proof. reflexivity. Qed.
Lemma ts_tuple_struct n ts vs : tv_ser (TTupleStruct n ts) (SSeq vs) = rmap VArr (zipM tv_ser ts vs). Proof. reflexivity. Qed.
Lemma ts_map kt vt es : tv_ser (TMap kt vt) (SMap es) = rmap btable_of (tv_entries kt vt es). Proof. reflexivity. Qed.
Lemma ts_struct_gen n fs vs : tv_ser (TStruct n fs) (SRec vs) =
  rbind (tv_fields fs vs) (fun ps => if bytes_eqb n DT_NAME then tv_dt_end (btree_of_pairs (somes_pairs ps)) else Ok (btable_of ps)).
Proof. reflexivity. Qed.
Lemma ts_struct n fs vs : private_name n = false -> tv_ser (TStruct n fs) (SRec vs) = rmap btable_of (tv_fields fs vs).
Proof. intro H. rewrite ts_struct_gen, (private_not_dt n H). destruct (tv_fields fs vs); reflexivity. Qed.
Lemma ts_newtype n t v : tv_ser (TNewtype n t) (SNewtype v) = tv_ser t v. Proof. reflexivity. Qed.
Lemma ts_enum n vs i p : tv_ser (TEnum n vs) (SVariant i p) = pick (tv_variant p) (Err EBadCase) vs i. Proof. reflexivity. Qed.
Lemma tp_newtype t p : tv_payload (VNewtype t) p = tv_ser t p. Proof. destruct p; reflexivity. Qed.
Lemma tp_tuple ts vs : tv_payload (VTuple ts) (SSeq vs) = rmap VArr (zipM tv_ser ts vs). Proof. reflexivity. Qed.
Lemma tp_struct fs vs : tv_payload (VStruct fs) (SRec vs) = rmap btable_of (tv_fields fs vs). Proof. reflexivity. Qed.

Definition tvd_entries (kt vt : ty) (es : list (bytes * tomlval)) : result (list (sval * sval)) :=
  mapM (fun kx => rbind (tv_de kt (VStr (fst kx))) (fun k => rmap (fun v => (k, v)) (tv_de vt (snd kx)))) es.
Lemma td_opt t x : tv_de (TOpt t) x = rmap SSome (tv_de t x). Proof. reflexivity. Qed.
Lemma td_seq t xs : tv_de (TSeq t) (VArr xs) = rmap SSeq (mapM (tv_de t) xs). Proof. reflexivity. Qed.
Lemma td_tuple ts xs : tv_de (TTuple ts) (VArr xs) = rmap SSeq (all_read (de_pos tv_de (fun t' => t') ts xs)). Proof. reflexivity. Qed.
Lemma td_tuple_struct n ts xs :
  tv_de (TTupleStruct n ts) (VArr xs) = rmap SSeq (all_read (de_pos tv_de (fun t' => t') ts xs)). Proof. reflexivity. Qed.
Lemma td_map kt vt es : tv_de (TMap kt vt) (VTab es) = rmap (fun ps => SMap (smap_of_pairs ps)) (tvd_entries kt vt es).
Proof. reflexivity. Qed.
Lemma td_struct n fs es : tv_de (TStruct n fs) (VTab es) = rmap SRec (de_struct_map tv_de fs es). Proof. reflexivity. Qed.
Lemma td_newtype n t x : tv_de (TNewtype n t) x = rmap SNewtype (tv_de t x). Proof. reflexivity. Qed.
Lemma td_enum_str n vs s : tv_de (TEnum n vs) (VStr s) = find_name de_unit_only (Err EDe) s vs 0. Proof. reflexivity. Qed.
Lemma td_enum_tab n vs k y : tv_de (TEnum n vs) (VTab [(k, y)]) =
  find_name (fun i var => rmap (SVariant i) (tv_de_payload var y)) (Err EDe) k vs 0. Proof. reflexivity. Qed.
Lemma tdp_newtype t y : tv_de_payload (VNewtype t) y = tv_de t y. Proof. reflexivity. Qed.
Lemma tdp_tuple ts xs : tv_de_payload (VTuple ts) (VArr xs) =
  if Nat.eqb (length xs) (length ts) then rmap SSeq (all_read (de_pos tv_de (fun t' => t') ts xs)) else Err EDe.
Proof. reflexivity. Qed.
Lemma tdp_struct fs es : tv_de_payload (VStruct fs) (VTab es) = rmap SRec (de_struct_map tv_de fs es). Proof. reflexivity. Qed.

(* ---- keys: whatever the key serializer of toml_edit accepts, SerializeMap::serialize_key accepts too ---- *)
Lemma tv_key_roundtrip t : forall a s, has_type_b t a = true -> ser_key t a = Ok s ->
  tv_key (tv_ser t a) = Ok s /\ tv_de t (VStr s) = Ok a.
Proof.
  induction t using ty_ind2 with (Q := fun _ => True); try exact I; intros a s Hty Hser;
    try (destruct a; simpl in Hser; discriminate Hser).
  - destruct a; simpl in Hser; destruct (ser_method_of w); discriminate Hser.
  - destruct a; simpl in Hser; try discriminate Hser. injection Hser as <-. split; reflexivity.
  - destruct a; try (simpl in Hser; discriminate Hser). rewrite sk_newtype in Hser. rewrite ht_newtype in Hty.
    destruct (IHt a s Hty Hser) as (K1 & K2). rewrite ts_newtype, td_newtype, K2. split; [exact K1|reflexivity].
  - destruct a; try (simpl in Hser; discriminate Hser). rewrite sk_enum in Hser. rewrite ht_enum in Hty.
    apply andb_true_iff in Hty as [Hnd Hp]. apply nodup_bytes_NoDup in Hnd.
    destruct (pick_cases key_variant (Err EBadCase) vs idx) as [([vn var] & Hn & E)|[_ E]]; rewrite E in Hser; [|discriminate].
    rewrite (pick_nth _ _ _ _ _ Hn) in Hp. simpl in Hp.
    unfold key_variant in Hser. simpl in Hser. destruct var; try discriminate. injection Hser as <-.
    apply htv_unit in Hp. subst a.
    rewrite ts_enum, (pick_nth _ _ _ _ _ Hn). rewrite td_enum_str, (find_name_nth _ _ _ _ _ _ _ Hnd Hn).
    split; reflexivity.
Qed.

(* ---- a failure names SOME documented unsupported shape ---- *)
Lemma tv_int_refused w z : ser_method_of w <> M_i64 -> (ser_method_of w = M_u64 -> fits_i64 z = false) ->
  exists e', match tv_ser_int w z with Some i => Ok (VInt i) | None => Err (tv_int_err w) end = Err e'.
Proof.
  unfold tv_ser_int. intros Hm Hu. destruct (ser_method_of w).
  - contradiction.
  - unfold tv_serialize_u64. rewrite (Hu eq_refl). eexists. reflexivity.
  - eexists. reflexivity.
  - eexists. reflexivity.
Qed.

Theorem tv_errors t v e : has_type_b t v = true -> tv_ser t v = Err e -> exists e', unsupported CElem t v e'.
Proof.
  intros Hty H. destruct (family_errors tv_family (fun _ _ => True)) with (t := t) (v := v) (e := e) as (e' & _ & U); eauto.
  - intros w z e0 H0. cbn [f_int tv_family] in H0. destruct (tv_ser_int w z) eqn:E; [discriminate|]. unfold tv_ser_int in E.
    destruct (ser_method_of w) eqn:M; [discriminate| | |].
    + unfold tv_serialize_u64 in E. destruct (fits_i64 z) eqn:Fz; [discriminate|]. eexists. split; [exact I|apply u_u64; assumption].
    + eexists. split; [exact I|apply u_i128; assumption].
    + eexists. split; [exact I|apply u_u128; assumption].
  - (* a key SerializeMap::serialize_key refuses, KeySerializer refuses too *)
    intros t0 a e0 Ht0 H0. cbn [f_key tv_family] in H0. destruct (ser_key t0 a) as [s|e1] eqn:K.
    + destruct (tv_key_roundtrip t0 a s Ht0 K) as [K1 _]. congruence.
    + exists e1. split; [exact I|apply ser_key_err; assumption].
Qed.

Theorem tv_supported_ok t v : has_type v t -> supported t v -> exists x, tv_ser t v = Ok x.
Proof.
  intros Hty Hs. destruct (tv_ser t v) as [x|e] eqn:E; [exists x; reflexivity|].
  exfalso. destruct (tv_errors t v e Hty E) as (e' & U). apply (Hs e' U).
Qed.

(* ---- round trip under `supported` ---- *)
Lemma Forall2_trans' {A B C} (R1 : A -> B -> Prop) (R2 : B -> C -> Prop) (R3 : A -> C -> Prop) l1 l2 l3 :
  (forall a b c, R1 a b -> R2 b c -> R3 a c) -> Forall2 R1 l1 l2 -> Forall2 R2 l2 l3 -> Forall2 R3 l1 l3.
Proof.
  intros Ht F1. revert l3. induction F1; intros l3 F2; inversion F2; subst; constructor; eauto.
Qed.

Theorem tv_roundtrip_supported t v x : has_type_b t v = true -> supported t v -> tv_ser t v = Ok x ->
  exists v', tv_de t x = Ok v' /\ sval_eq v v'.
Proof.
  intros Hty Hs H. apply (family_roundtrip tv_family tv_de_family same_tree) with (t := t) (v := v) (x := x); [| | |exact Hty|exact Hs|exact H|reflexivity].
  - intros w z y Hin Hy. cbn [f_int tv_family] in Hy. destruct (tv_ser_int w z) as [i|] eqn:E; [|discriminate Hy]. injection Hy as <-.
    destruct (tv_ser_exact w z i Hin E) as [-> _]. split; [reflexivity|].
    apply de_in_range_ok; [|exact Hin]. destruct w; try reflexivity; discriminate E.
  - apply tv_key_roundtrip.
  - (* a BTreeMap holds the entries sorted by key *)
    intros ps Hnd. destruct (btree_of_pairs_spec ps Hnd) as [Hsorted _].
    split; [apply bsorted_nodup, Hsorted|apply btree_of_pairs_perm, Hnd].
Qed.

(* Value::try_from on a value without unsupported shapes: accepted, and try_into gives it back *)
Theorem tryfrom_supported t v : has_type v t -> supported t v ->
  exists out, tv_ser t v = Ok out /\ exists v', tv_de t out = Ok v' /\ sval_eq v v'.
Proof.
  intros Hty Hs. destruct (tv_supported_ok t v Hty Hs) as (x & Hx). exists x. split; [exact Hx|].
  apply (tv_roundtrip_supported t v x Hty Hs Hx).
Qed.

(* Table::try_from: whatever it accepts is what Value::try_from builds (a Datetime at the root, also behind Some /
   newtype structs, is refused since TableSerializer::serialize_struct refuses toml_datetime's private struct; before, it
   was written as the table { FIELD = "text" }, known class private-datetime-key) *)
Lemma tst_struct n fs vs : tv_ser_table (TStruct n fs) (SRec vs) =
  if bytes_eqb n DT_NAME then Err (EUnsupportedType None) else rmap btable_of (tv_fields fs vs).
Proof. reflexivity. Qed.

Theorem tv_table_is_value t : forall v out, has_type_b t v = true -> tv_ser_table t v = Ok out -> tv_ser t v = Ok out.
Proof.
  induction t using ty_ind2 with (Q := fun _ => True); try exact I; intros v out Hty Hser;
    try (destruct v; simpl in Hser; discriminate Hser).
  - (* TInt *) destruct v; simpl in Hser; try discriminate Hser. destruct (ser_method_of w); discriminate Hser.
  - (* TOpt *) destruct v; try (simpl in Hser; discriminate Hser). rewrite ts_opt_some. rewrite ht_opt_some in Hty. apply IHt; assumption.
  - (* TMap *) destruct v; try (simpl in Hser; discriminate Hser). exact Hser.
  - (* TStruct *) destruct v; try (simpl in Hser; discriminate Hser).
    rewrite ht_struct in Hty. apply andb_true_iff in Hty as [Hty _]. apply andb_true_iff in Hty as [Hpriv _].
    apply negb_true_iff in Hpriv. rewrite tst_struct, (private_not_dt n Hpriv) in Hser. rewrite (ts_struct n fs vs Hpriv). exact Hser.
  - (* TNewtype *) destruct v; try (simpl in Hser; discriminate Hser). rewrite ts_newtype. rewrite ht_newtype in Hty. apply IHt; assumption.
  - destruct v as [| | | | | | | | | | | | | |i p]; try (simpl in Hser; discriminate Hser).
    simpl in Hser.
    match type of Hser with pick ?f ?d vs i = _ => destruct (pick_cases f d vs i) as [([vn var] & Hn & E)|[_ E]]; rewrite E in Hser end;
      [|discriminate Hser].
    simpl in Hser. destruct var; try discriminate Hser. exact Hser.
Qed.

Theorem table_tryfrom_roundtrip t v out : has_type v t -> supported t v -> tv_ser_table t v = Ok out ->
  exists v', tv_de t out = Ok v' /\ sval_eq v v'.
Proof.
  intros Hty Hs H. apply (tv_roundtrip_supported t v out Hty Hs (tv_table_is_value t v out Hty H)).
Qed.

(* ---- the converse of tv_errors (since the repair of C07-tryfrom-nested-none-dropped): a value with a documented
   unsupported shape is refused — nothing is silently dropped.  `doc_keys`: map keys of type char / Option<_>
   are accepted by SerializeMap::serialize_key although they are "bad keys" for a document. ---- *)
Lemma tv_key_of_nonstring r : (forall s, r <> Ok (VStr s)) -> exists e', tv_key r = Err e'.
Proof. intro H. destruct r as [x|e]; [|simpl; eauto]. destruct x; simpl; eauto. exfalso. eapply H. reflexivity. Qed.

Lemma tv_bad_key_fails t a e : bad_key t a e -> has_type_b t a = true -> doc_key_ty t = true ->
  exists e', tv_key (tv_ser t a) = Err e'.
Proof.
  induction 1 as [n t v e _ IH|v|v|t v Hk Hn H1 H2]; intros Hty Hd.
  - rewrite ts_newtype. apply IH; [rewrite ht_newtype in Hty; exact Hty|exact Hd].
  - destruct v; simpl in Hty; try discriminate Hty. eexists. reflexivity.
  - destruct v; simpl in Hty; try discriminate Hty. eexists. reflexivity.
  - apply tv_key_of_nonstring. intros s E.
    destruct t; try discriminate Hd.
    + destruct v; simpl in Hty; try discriminate Hty. discriminate E.
    + destruct v; simpl in Hty; try discriminate Hty. simpl in E. destruct (tv_ser_int w z); discriminate E.
    + destruct w; destruct v; simpl in Hty; try discriminate Hty; discriminate E.
    + destruct v; simpl in Hty; try discriminate Hty. simpl in Hk. discriminate Hk.
    + destruct v; simpl in Hty; try discriminate Hty. simpl in E. unfold ser_datetime in E.
      destruct (dt_field_str (display_datetime d)); discriminate E.
    + destruct v; simpl in Hty; try discriminate Hty. discriminate E.
    + destruct v; simpl in Hty; try discriminate Hty. discriminate E.
    + destruct v; try (simpl in Hty; discriminate Hty). rewrite ts_seq in E. destruct (mapM (tv_ser t) vs); discriminate E.
    + destruct v; try (simpl in Hty; discriminate Hty). rewrite ts_tuple in E. destruct (zipM tv_ser ts vs); discriminate E.
    + destruct v; try (simpl in Hty; discriminate Hty). rewrite ts_map in E. destruct (tv_entries t1 t2 es); discriminate E.
    + destruct v; try (simpl in Hty; discriminate Hty). rewrite ht_struct in Hty.
      apply andb_true_iff in Hty as [Hty _]. apply andb_true_iff in Hty as [Hpriv _]. apply negb_true_iff in Hpriv.
      rewrite (ts_struct name fs vs Hpriv) in E. destruct (tv_fields fs vs); discriminate E.
    + exfalso. eapply Hn. reflexivity.
    + destruct v; try (simpl in Hty; discriminate Hty). rewrite ts_tuple_struct in E. destruct (zipM tv_ser ts vs); discriminate E.
    + destruct v as [| | | | | | | | | | | | | |i p]; try (simpl in Hty; discriminate Hty).
      rewrite ht_enum in Hty. apply andb_true_iff in Hty as [_ Hp]. rewrite kt_enum in Hk. rewrite ts_enum in E.
      destruct (pick_cases (tv_variant p) (Err EBadCase) vs i) as [([vn var] & Hnth & E')|[_ E']]; rewrite E' in E; [|discriminate E].
      rewrite (pick_nth _ _ _ _ _ Hnth) in Hk. unfold key_text_variant in Hk. unfold tv_variant in E. simpl in *.
      destruct var; try discriminate Hk; destruct (tv_payload _ p); discriminate E.
Qed.

Theorem tv_unsupported_refused_gen c t v e : unsupported c t v e -> has_type_b t v = true -> doc_keys t = true ->
  exists e', tv_ser t v = Err e' /\ (c = CField -> ser_map_value tv_ser t v = Err e').
Proof.
  intros U Hty Hd. rewrite doc_keys_all in Hd.
  apply (family_refused tv_family doc_key_ty tv_int_refused tv_bad_key_fails) with (e := e); assumption.
Qed.

Theorem tv_unsupported_refused t v e : has_type v t -> doc_keys t = true -> unsupported CElem t v e ->
  exists e', tv_ser t v = Err e'.
Proof. intros Hty Hd U. destruct (tv_unsupported_refused_gen _ _ _ _ U Hty Hd) as (e' & E & _). eauto. Qed.

(* Value::try_from accepts a well-typed value exactly when it has no documented unsupported shape — the verdict of
   toml_edit's ValueSerializer (ser_ok_iff_supported) *)
Theorem tv_ok_iff_supported t v : has_type v t -> doc_keys t = true ->
  ((exists x, tv_ser t v = Ok x) <-> supported t v).
Proof.
  intros Hty Hd. split.
  - intros (x & Hx) e U. destruct (tv_unsupported_refused t v e Hty Hd U) as (e' & E). congruence.
  - apply tv_supported_ok. exact Hty.
Qed.

Theorem tv_same_verdict t v : has_type v t -> doc_keys t = true ->
  ((exists y, tv_ser t v = Ok y) <-> (exists x, ser_value t v = Ok x)).
Proof.
  intros Hty Hd. rewrite (tv_ok_iff_supported t v Hty Hd). symmetry. apply ser_ok_iff_supported. exact Hty.
Qed.

(* whatever Value::try_from accepts, try_into gives back *)
Theorem tryfrom_roundtrip t v out : has_type v t -> doc_keys t = true -> tv_ser t v = Ok out ->
  exists v', tv_de t out = Ok v' /\ sval_eq v v'.
Proof.
  intros Hty Hd H. apply (tv_roundtrip_supported t v out Hty); [|exact H].
  apply (tv_ok_iff_supported t v Hty Hd). exists out. exact H.
Qed.

Theorem table_tryfrom_roundtrip_full t v out : has_type v t -> doc_keys t = true -> tv_ser_table t v = Ok out ->
  exists v', tv_de t out = Ok v' /\ sval_eq v v'.
Proof.
  intros Hty Hd H. apply (tryfrom_roundtrip t v out Hty Hd (tv_table_is_value t v out Hty H)).
Qed.

(* Table::try_from accepts nothing Value::try_from refuses: it, too, accepts `supported` values only *)
Theorem table_tryfrom_supported t v out : has_type v t -> doc_keys t = true -> tv_ser_table t v = Ok out -> supported t v.
Proof.
  intros Hty Hd H. apply (tv_ok_iff_supported t v Hty Hd). exists out. apply (tv_table_is_value t v out Hty H).
Qed.
