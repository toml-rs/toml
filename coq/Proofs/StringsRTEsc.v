(* Proofs/StringsRTEsc.v — the escaping writer against a content parser, generically:
   every escape sequence the writer emits is read back by `escaped`; the writer's output for a
   string is consumed chunk by chunk (`content_step`, `content_run`) by any content parser that
   accepts plain chunks, escapes and (multi-line only) LF.  Instantiated for basic_chars and
   mlb_content in StringsRTBasic.v / StringsRTMlBasic.v. *)
From TV Require Import Base.Prelude Base.Utf8 Base.Winnow Gen.Consts.
From TV Require Import Model.Trivia Model.Strings Model.Write.
From TV Require Import Proofs.StringsRTDefs Proofs.StringsRTBase Proofs.StringsRTWrite.
Require Import Lia ZifyBool ZifyN ZifyNat.

(* ---- escape sequences ------------------------------------------------------------------------ *)
(* the byte after the backslash of a two-character escape is not blank and not a line end,
   so `mlb_escaped_nl` does not take it for a line continuation *)
Definition esc_letter (c : byte) : Prop :=
  in_class WSCHAR c = false /\ byte_eqb c x0a = false /\ byte_eqb c x0d = false.

Lemma short_escape_spec is_ml b c : short_escape is_ml b = Some c ->
  assoc_byte ESCAPE_SIMPLE c = Some (b2n b) /\ utf8_encode (b2n b) = [b] /\ esc_letter c.
Proof.
  unfold short_escape, esc_letter.
  destruct (byte_eqb b x08) eqn:E08.
  { apply byte_eqb_eq in E08. subst b. intro H. injection H as <-. vm_compute. auto. }
  destruct (byte_eqb b x09) eqn:E09.
  { apply byte_eqb_eq in E09. subst b. intro H. injection H as <-. vm_compute. auto. }
  destruct (byte_eqb b x0a) eqn:E0a.
  { apply byte_eqb_eq in E0a. subst b. destruct is_ml; [discriminate|]. intro H. injection H as <-. vm_compute. auto. }
  destruct (byte_eqb b x0c) eqn:E0c.
  { apply byte_eqb_eq in E0c. subst b. intro H. injection H as <-. vm_compute. auto. }
  destruct (byte_eqb b x0d) eqn:E0d.
  { apply byte_eqb_eq in E0d. subst b. intro H. injection H as <-. vm_compute. auto. }
  destruct (byte_eqb b x5c) eqn:E5c.
  { apply byte_eqb_eq in E5c. subst b. intro H. injection H as <-. vm_compute. auto. }
  discriminate.
Qed.

Lemma quote_escape_spec :
  assoc_byte ESCAPE_SIMPLE x22 = Some (b2n x22) /\ utf8_encode (b2n x22) = [x22] /\ esc_letter x22.
Proof. vm_compute. auto. Qed.

Lemma escaped_simple c v X p d : assoc_byte ESCAPE_SIMPLE c = Some v ->
  escaped (mkIn (x5c :: c :: X) p d) = Ok (utf8_encode v) (after [x5c; c] X p d).
Proof.
  intro H. unfold escaped, preceded, ESCAPE.
  rewrite (bind_ok _ _ _ _ _ (byte_yes x5c (c :: X) p d)).
  unfold escape_seq_char. rewrite (bind_ok _ _ _ _ _ (any_cons c X (p + 1) d)).
  rewrite H. unfold ret. apply ok_inp; [reflexivity|inp].
Qed.

(* \u00XY for a control character *)
Lemma hex_escape_facts b : is_ctrl b = true ->
  let h1 := hex_upper (b2n b / 16) in
  let h2 := hex_upper (b2n b mod 16) in
  in_class HEXDIG h1 = true /\ in_class HEXDIG h2 = true /\
  utf8_valid_b [x30; x30; h1; h2] = true /\
  u32_from_hex [x30; x30; h1; h2] = Some (b2n b) /\
  is_scalar (b2n b) = true /\ utf8_encode (b2n b) = [b].
Proof. destruct b; intro H; try discriminate H; vm_compute; auto 10. Qed.

Lemma escaped_hex b X p d : is_ctrl b = true ->
  escaped (mkIn (u_escape b ++ X) p d) = Ok [b] (after (u_escape b) X p d).
Proof.
  intro Hc. destruct (hex_escape_facts b Hc) as [H1 [H2 [H3 [H4 [H5 H6]]]]].
  unfold u_escape. cbn [app].
  set (h1 := hex_upper (b2n b / 16)) in *. set (h2 := hex_upper (b2n b mod 16)) in *.
  unfold escaped, preceded, ESCAPE.
  rewrite (bind_ok _ _ _ _ _ (byte_yes x5c _ p d)).
  unfold escape_seq_char. rewrite (bind_ok _ _ _ _ _ (any_cons x75 _ (p + 1) d)).
  change (assoc_byte ESCAPE_SIMPLE x75) with (@None N).
  change (assoc_byte ESCAPE_HEX x75) with (Some 4).
  cbv beta iota.
  assert (Hh : hexescape 4 (mkIn (x30 :: x30 :: h1 :: h2 :: X) (p + 1 + 1) d)
               = Ok [b] (mkIn X (p + 1 + 1 + 4)%N d)).
  { unfold hexescape, try_map, verify_map, unchecked_utf8, verify, take_while_mn.
    cbn [rest take_upto]. change (in_class HEXDIG x30) with true. cbv iota. rewrite H1, H2.
    cbn [length Nat.ltb Nat.leb Nat.eqb]. rewrite H3, H4, H5, H6. reflexivity. }
  unfold context, cut_err. rewrite Hh. apply ok_inp; [reflexivity|inp].
Qed.

Lemma u_escape_shape b : exists h1 h2, u_escape b = [x5c; x75; x30; x30; h1; h2].
Proof. unfold u_escape. eauto. Qed.

(* ---- shape of the writer's output --------------------------------------------------------------- *)
(* a content chunk ends in front of a quotation mark, a backslash, LF or the end of input *)
Definition hstop (X : bytes) : Prop :=
  match X with
  | [] => True
  | b :: _ => byte_eqb b x22 = true \/ byte_eqb b x5c = true \/ byte_eqb b x0a = true
  end.

Lemma hstop_basic X : hstop X -> stops (in_class BASIC_UNESCAPED) X.
Proof. destruct X as [|b X]; [auto|]. apply basic_stop. Qed.
Lemma hstop_mlb X : hstop X -> stops (in_class MLB_UNESCAPED) X.
Proof. destruct X as [|b X]; [auto|]. apply mlb_stop. Qed.

Lemma plain_facts is_ml b : plain b = true ->
  byte_eqb b x22 = false /\ short_escape is_ml b = None /\ byte_eqb b x0a = false /\ is_ctrl b = false.
Proof.
  intro H. assert (H22 : byte_eqb b x22 = false) by (byten; lia).
  assert (Hc : is_ctrl b = false) by (byten; lia).
  assert (H0a : byte_eqb b x0a = false) by (byten; lia).
  repeat split; auto. unfold short_escape.
  assert (E08 : byte_eqb b x08 = false) by (byten; lia). rewrite E08.
  assert (E09 : byte_eqb b x09 = false) by (byten; lia). rewrite E09.
  rewrite H0a.
  assert (E0c : byte_eqb b x0c = false) by (byten; lia). rewrite E0c.
  assert (E0d : byte_eqb b x0d = false) by (byten; lia). rewrite E0d.
  assert (E5c : byte_eqb b x5c = false) by (byten; lia). rewrite E5c.
  reflexivity.
Qed.

Lemma enc_plain_cons is_ml seq b r : plain b = true -> enc is_ml seq (b :: r) = b :: enc is_ml 0 r.
Proof.
  intro H. destruct (plain_facts is_ml b H) as [H1 [H2 [H3 H4]]].
  cbn [enc]. rewrite H1, H2, H3, H4. reflexivity.
Qed.

Lemma enc_plain_chunk is_ml : forall c seq b r, forallb plain (b :: c) = true ->
  enc is_ml seq ((b :: c) ++ r) = (b :: c) ++ enc is_ml 0 r.
Proof.
  induction c as [|b' c IH]; intros seq b r H; cbn [forallb] in H; apply andb_true_iff in H as [Hb Hc].
  - cbn [app]. apply enc_plain_cons. exact Hb.
  - cbn [app]. rewrite enc_plain_cons by exact Hb. f_equal. apply (IH 0%N b' r). exact Hc.
Qed.

(* the encoding of a string that starts with a non-plain byte starts with a backslash, a quotation mark or LF *)
Lemma enc_head_stop is_ml s X : stops plain s -> hstop X -> hstop (enc is_ml 0 s ++ X).
Proof.
  intros Hs HX. destruct s as [|b r]; [exact HX|]. cbn in Hs. cbn [enc].
  destruct (byte_eqb b x22) eqn:E22.
  { destruct ((if is_ml then 2 else 0) <? 0 + 1)%N; cbn; [right; left; reflexivity|left; reflexivity]. }
  destruct (short_escape is_ml b) as [c|] eqn:Es.
  { cbn. right; left; reflexivity. }
  destruct (byte_eqb b x0a) eqn:E0a.
  { cbn. right; right; reflexivity. }
  destruct (is_ctrl b) eqn:Ec.
  { unfold u_escape. cbn. right; left; reflexivity. }
  exfalso. unfold plain in Hs. rewrite Ec, E22 in Hs. cbn in Hs.
  unfold short_escape in Es.
  destruct (byte_eqb b x08); [discriminate|]. destruct (byte_eqb b x09); [discriminate|].
  rewrite E0a in Es. destruct (byte_eqb b x0c); [discriminate|]. destruct (byte_eqb b x0d); [discriminate|].
  destruct (byte_eqb b x5c); [discriminate|]. discriminate.
Qed.

(* cutting a valid string in front of a non-plain byte *)
Lemma utf8_cut_plain c s1 : stops plain s1 -> utf8_valid_b (c ++ s1) = true ->
  utf8_valid_b c = true /\ utf8_valid_b s1 = true.
Proof.
  intro Hs. apply utf8_cut. destruct s1 as [|b r]; [exact I|]. apply N.leb_le, not_plain_ascii, Hs.
Qed.

(* ---- one step and a whole run of a content parser ------------------------------------------------- *)
Section Content.
  Variable is_ml : bool.
  Variable P : parser bytes.
  Hypothesis P_plain : forall c X p d, c <> [] -> forallb plain c = true -> utf8_valid_b c = true -> hstop X ->
      P (mkIn (c ++ X) p d) = Ok c (after c X p d).
  Hypothesis P_simple : forall c v X p d, assoc_byte ESCAPE_SIMPLE c = Some v -> esc_letter c ->
      P (mkIn (x5c :: c :: X) p d) = Ok (utf8_encode v) (after [x5c; c] X p d).
  Hypothesis P_hex : forall b X p d, is_ctrl b = true ->
      P (mkIn (u_escape b ++ X) p d) = Ok [b] (after (u_escape b) X p d).
  Hypothesis P_lf : is_ml = true -> forall X p d,
      P (mkIn (x0a :: X) p d) = Ok [x0a] (after [x0a] X p d).

  (* a byte the writer escapes on its own *)
  Lemma content_one b s0 e : utf8_valid_b (b :: s0) = true -> e <> [] -> (b2n b <= 127)%N ->
    enc is_ml 0 (b :: s0) = e ++ enc is_ml 0 s0 ->
    (forall X p d, P (mkIn (e ++ X) p d) = Ok [b] (after e X p d)) ->
    exists c1 s1 e1,
      b :: s0 = c1 ++ s1 /\ e1 <> [] /\
      enc is_ml 0 (b :: s0) = e1 ++ enc is_ml 0 s1 /\ utf8_valid_b s1 = true /\
      forall T p d, hstop T ->
        P (mkIn (e1 ++ enc is_ml 0 s1 ++ T) p d) = Ok c1 (after e1 (enc is_ml 0 s1 ++ T) p d).
  Proof.
    intros Hu He Hb Henc HP. exists [b], s0, e. repeat split; auto.
    rewrite utf8_cons_ascii in Hu by (apply N.leb_le, Hb). exact Hu.
  Qed.

  Lemma short_escape_ascii b c : short_escape is_ml b = Some c -> (b2n b <= 127)%N.
  Proof.
    unfold short_escape. intro Es.
    destruct (byte_eqb b x08) eqn:E1; [byten; lia|]. destruct (byte_eqb b x09) eqn:E2; [byten; lia|].
    destruct (byte_eqb b x0a) eqn:E3; [byten; lia|]. destruct (byte_eqb b x0c) eqn:E4; [byten; lia|].
    destruct (byte_eqb b x0d) eqn:E5; [byten; lia|]. destruct (byte_eqb b x5c) eqn:E6; [byten; lia|]. discriminate.
  Qed.

  (* a byte that is not a quotation mark, has no short escape, is not LF and not a control character *)
  Lemma plain_by_exclusion b : byte_eqb b x22 = false -> short_escape is_ml b = None ->
    byte_eqb b x0a = false -> is_ctrl b = false -> plain b = true.
  Proof.
    intros E22 Es E0a Ec. unfold plain. rewrite Ec, E22. cbn. unfold short_escape in Es.
    destruct (byte_eqb b x08); [discriminate|]. destruct (byte_eqb b x09); [discriminate|].
    rewrite E0a in Es. destruct (byte_eqb b x0c); [discriminate|]. destruct (byte_eqb b x0d); [discriminate|].
    destruct (byte_eqb b x5c); [discriminate|reflexivity].
  Qed.

  (* the writer's output for a non-empty string starts with a piece `e1` that the content parser reads
     as the first bytes `c1` of the string: an escaped byte, or a whole chunk of plain bytes *)
  Lemma content_step b s0 :
    utf8_valid_b (b :: s0) = true -> (is_ml = true -> byte_eqb b x22 = false) ->
    exists c1 s1 e1,
      b :: s0 = c1 ++ s1 /\ e1 <> [] /\
      enc is_ml 0 (b :: s0) = e1 ++ enc is_ml 0 s1 /\ utf8_valid_b s1 = true /\
      forall T p d, hstop T ->
        P (mkIn (e1 ++ enc is_ml 0 s1 ++ T) p d) = Ok c1 (after e1 (enc is_ml 0 s1 ++ T) p d).
  Proof.
    intros Hu Hq.
    destruct (byte_eqb b x22) eqn:E22.
    { assert (Eml : is_ml = false) by (destruct is_ml eqn:E; [specialize (Hq eq_refl); congruence|reflexivity]).
      apply byte_eqb_eq in E22. subst b.
      destruct quote_escape_spec as [Q1 [Q2 Q3]].
      apply (content_one x22 s0 [x5c; x22] Hu); [discriminate|vm_compute; discriminate|rewrite Eml; reflexivity|].
      intros X p d. cbn [app]. rewrite (P_simple x22 _ X p d Q1 Q3), Q2. reflexivity. }
    destruct (short_escape is_ml b) as [c|] eqn:Es.
    { destruct (short_escape_spec is_ml b c Es) as [S1 [S2 S3]].
      apply (content_one b s0 [x5c; c] Hu);
        [discriminate|exact (short_escape_ascii b c Es)|cbn [enc]; rewrite E22, Es; reflexivity|].
      intros X p d. cbn [app]. rewrite (P_simple c _ X p d S1 S3), S2. reflexivity. }
    destruct (byte_eqb b x0a) eqn:E0a.
    { assert (Eml : is_ml = true).
      { unfold short_escape in Es. destruct (byte_eqb b x08); [discriminate|]. destruct (byte_eqb b x09); [discriminate|].
        rewrite E0a in Es. destruct is_ml; [reflexivity|discriminate]. }
      apply byte_eqb_eq in E0a. subst b.
      apply (content_one x0a s0 [x0a] Hu); [discriminate|vm_compute; discriminate| |].
      - cbn [enc]. rewrite Es. reflexivity.
      - intros X p d. cbn [app]. apply P_lf. exact Eml. }
    destruct (is_ctrl b) eqn:Ec.
    { apply (content_one b s0 (u_escape b) Hu).
      - unfold u_escape. discriminate.
      - clear - Ec. byten. lia.
      - cbn [enc]. rewrite E22, Es, E0a, Ec. reflexivity.
      - intros X p d. apply P_hex. exact Ec. }
    pose proof (plain_by_exclusion b E22 Es E0a Ec) as Hp.
    destruct (span_while_split plain s0) as [c [s1 [Hs0 [Hc Hs1]]]].
    exists (b :: c), s1, (b :: c).
    assert (Hall : forallb plain (b :: c) = true) by (cbn [forallb]; rewrite Hp, Hc; reflexivity).
    assert (Hcut : utf8_valid_b (b :: c) = true /\ utf8_valid_b s1 = true).
    { apply utf8_cut_plain; [exact Hs1|]. cbn [app]. rewrite <- Hs0. exact Hu. }
    split; [rewrite Hs0; reflexivity|]. split; [discriminate|].
    split; [rewrite Hs0; apply (enc_plain_chunk is_ml c 0%N b s1 Hall)|]. split; [tauto|].
    intros T p d HT. apply P_plain; [discriminate|exact Hall|tauto|].
    apply enc_head_stop; assumption.
  Qed.

  (* a run of content: the whole of `c` when it holds no quotation mark that the parser must
     treat specially (multi-line), ending in front of a tail the content parser refuses *)
  Lemma content_run : forall fuel c T acc p d,
    utf8_valid_b c = true ->
    (is_ml = true -> forallb (fun b => negb (byte_eqb b x22)) c = true) ->
    hstop T -> (forall p' d', exists e i', P (mkIn T p' d') = Bt e i') ->
    length (enc is_ml 0 c ++ T) < fuel ->
    chunks_f fuel P acc (mkIn (enc is_ml 0 c ++ T) p d) = Ok (acc ++ c) (after (enc is_ml 0 c) T p d).
  Proof.
    induction fuel as [|f IH]; intros c T acc p d Hu Hq HT Hend Hf; [inversion Hf|].
    destruct c as [|b s0].
    { cbn [enc app chunks_f]. destruct (Hend p d) as [e [i' He]]. rewrite He, app_nil_r, after_nil. reflexivity. }
    assert (Hb : is_ml = true -> byte_eqb b x22 = false).
    { intro E. specialize (Hq E). cbn [forallb] in Hq. apply andb_true_iff in Hq as [Hq _].
      destruct (byte_eqb b x22); [discriminate|reflexivity]. }
    destruct (content_step b s0 Hu Hb) as [c1 [s1 [e1 [Hs [He1 [Henc [Hu1 HP]]]]]]].
    rewrite Henc, <- app_assoc in Hf |- *.
    rewrite (chunks_f_step _ _ _ _ _ _ _ _ He1 (HP T p d HT)).
    rewrite <- after_after, Hs, app_assoc. apply IH; auto.
    - intro E. specialize (Hq E). rewrite Hs, forallb_app in Hq. apply andb_true_iff in Hq. tauto.
    - apply (fuel_step e1); assumption.
  Qed.
End Content.
