(* Proofs/SerdeRTKeys.v — C07, map keys: what KeySerializer (ser_key) accepts is the text `key_text` names, KeyDeserializer
   reads it back, distinct texts are distinct keys; what it refuses is a `bad_key`, and conversely. *)
From TV Require Import Base.Prelude Spec.SerdeData Model.SerNum Model.Ser Model.De Proofs.SerdeRTBase Proofs.SerdeRTEq.

Lemma key_roundtrip t : forall a s, has_type_b t a = true -> ser_key t a = Ok s ->
  key_text t a = Some s /\ de_key t s = Ok a /\ sval_eq a a.
Proof.
  induction t using ty_ind2 with (Q := fun _ => True); try exact I; intros a s Hty Hser;
    try (destruct a; simpl in Hser; discriminate).
  - (* TInt *) destruct a; simpl in Hser; destruct (ser_method_of w); discriminate.
  - (* TStr *) destruct a; simpl in Hser; try discriminate. injection Hser as <-. repeat split. constructor.
  - (* TNewtype *)
    destruct a; try (simpl in Hser; discriminate). rewrite sk_newtype in Hser. rewrite ht_newtype in Hty.
    destruct (IHt a s Hty Hser) as (K1 & K2 & K3). rewrite kt_newtype, dk_newtype, K2. repeat split; [exact K1|constructor; exact K3].
  - (* TEnum *)
    destruct a; try (simpl in Hser; discriminate). rewrite sk_enum in Hser. rewrite ht_enum in Hty.
    apply andb_true_iff in Hty as [Hnd Hp]. apply nodup_bytes_NoDup in Hnd.
    destruct (pick_cases key_variant (Err EBadCase) vs idx) as [([vn var] & Hn & E)|[_ E]]; rewrite E in Hser; [|discriminate].
    rewrite (pick_nth _ _ _ _ _ Hn) in Hp. simpl in Hp.
    unfold key_variant in Hser. simpl in Hser. destruct var; try discriminate. injection Hser as <-.
    apply htv_unit in Hp. subst a.
    rewrite kt_enum, (pick_nth _ _ _ _ _ Hn). rewrite dk_enum, (find_name_nth _ _ _ _ _ _ _ Hnd Hn).
    repeat split. constructor. constructor.
Qed.

(* different key texts: different keys (BTreeMap / HashMap key equality) *)
Lemma key_text_distinct t : forall a b ka kb,
  key_text t a = Some ka -> key_text t b = Some kb -> ka <> kb -> sval_beq a b = false.
Proof.
  induction t using ty_ind2 with (Q := fun _ => True); try exact I; intros a b ka kb Ha Hb Hne;
    try (destruct a; simpl in Ha; discriminate).
  - destruct a; simpl in Ha; try discriminate. destruct b; simpl in Hb; try discriminate.
    injection Ha as ->. injection Hb as ->. simpl. apply bytes_eqb_neq. exact Hne.
  - destruct a; try (simpl in Ha; discriminate). destruct b; try (simpl in Hb; discriminate).
    rewrite kt_newtype in Ha, Hb. simpl. eapply IHt; eassumption.
  - destruct a as [| | | | | | | | | | | | | |i pa]; try (simpl in Ha; discriminate).
    destruct b as [| | | | | | | | | | | | | |j pb]; try (simpl in Hb; discriminate).
    rewrite kt_enum in Ha, Hb. simpl. destruct (Nat.eqb i j) eqn:E; [|reflexivity].
    apply Nat.eqb_eq in E. subst j. congruence.
Qed.

Lemma keys_distinct kt (qs : list (sval * sval)) (kxs : list (bytes * tomlval)) :
  Forall2 (fun q kx => key_text kt (fst q) = Some (fst kx)) qs kxs -> NoDup (map fst kxs) ->
  ForallOrdPairs (fun p q => sval_beq (fst p) (fst q) = false) qs.
Proof.
  induction 1 as [|q kx l1 l2 Hq Ht IH]; intro Hnd; [constructor|].
  simpl in Hnd. inversion Hnd as [|? ? Hnot Hnd']; subst. constructor; [|apply IH; exact Hnd'].
  rewrite Forall_forall. intros q' Hin.
  destruct (Forall2_In_l _ _ _ _ Ht Hin) as (kx' & Hin' & Hq').
  eapply key_text_distinct; [exact Hq|exact Hq'|]. intro Heq. apply Hnot. rewrite Heq. apply in_map. exact Hin'.
Qed.

(* ---- refusals ---- *)
Lemma ser_key_err t : forall a e, has_type_b t a = true -> ser_key t a = Err e -> bad_key t a e.
Proof.
  induction t using ty_ind2 with (Q := fun _ => True); try exact I; intros a e Hty Hser.
  - (* TBool *) destruct a; simpl in Hser; injection Hser as <-; apply bk_other; try reflexivity; intros; discriminate.
  - (* TInt *)
    assert (Hs : ser_key (TInt w) a = match ser_method_of w with
                 | M_i128 => Err (EInt128 false) | M_u128 => Err (EInt128 true) | _ => Err EKeyNotString end)
      by (destruct a; reflexivity).
    rewrite Hs in Hser.
    destruct w; simpl in Hser; injection Hser as <-;
      first [apply bk_i128 | apply bk_u128
            | (apply bk_other; [destruct a; reflexivity|intros; discriminate|discriminate|discriminate])].
  - destruct a; simpl in Hser; injection Hser as <-; apply bk_other; try reflexivity; try (intros; discriminate); destruct w; reflexivity.
  - destruct a; simpl in Hser; injection Hser as <-; apply bk_other; try reflexivity; intros; discriminate.
  - (* TStr *) destruct a; simpl in Hty; try discriminate Hty. simpl in Hser. discriminate Hser.
  - destruct a; simpl in Hser; injection Hser as <-; apply bk_other; try reflexivity; intros; discriminate.
  - destruct a; simpl in Hser; injection Hser as <-; apply bk_other; try reflexivity; intros; discriminate.
  - destruct a; simpl in Hser; injection Hser as <-; apply bk_other; try reflexivity; intros; discriminate.
  - destruct a; simpl in Hser; injection Hser as <-; apply bk_other; try reflexivity; intros; discriminate.
  - destruct a; simpl in Hser; injection Hser as <-; apply bk_other; try reflexivity; intros; discriminate.
  - destruct a; simpl in Hser; injection Hser as <-; apply bk_other; try reflexivity; intros; discriminate.
  - destruct a; simpl in Hser; injection Hser as <-; apply bk_other; try reflexivity; intros; discriminate.
  - destruct a; simpl in Hser; injection Hser as <-; apply bk_other; try reflexivity; intros; discriminate.
  - (* TNewtype *) destruct a; try (simpl in Hty; discriminate). rewrite sk_newtype in Hser. rewrite ht_newtype in Hty.
    apply bk_newtype. apply IHt; assumption.
  - destruct a; simpl in Hser; injection Hser as <-; apply bk_other; try reflexivity; intros; discriminate.
  - (* TEnum *) destruct a as [| | | | | | | | | | | | | |i p]; try (simpl in Hty; discriminate).
    rewrite ht_enum in Hty. apply andb_true_iff in Hty as [_ Hp]. rewrite sk_enum in Hser.
    destruct (pick_cases key_variant (Err EBadCase) vs i) as [([vn var] & Hn & E)|[Hn E]].
    + rewrite E in Hser. unfold key_variant in Hser. simpl in Hser.
      destruct var; try discriminate; injection Hser as <-;
        (apply bk_other; [rewrite kt_enum, (pick_nth _ _ _ _ _ Hn); reflexivity|intros; discriminate|discriminate|discriminate]).
    + rewrite (pick_none _ _ _ _ Hn) in Hp. discriminate.
Qed.

Lemma bad_key_fails t a e : bad_key t a e -> has_type_b t a = true -> exists e', ser_key t a = Err e'.
Proof.
  induction 1 as [n t v e _ IH|v|v|t v Hk Hn H1 H2]; intro Hty.
  - rewrite sk_newtype. apply IH. rewrite ht_newtype in Hty. exact Hty.
  - exists (EInt128 false). destruct v; reflexivity.
  - exists (EInt128 true). destruct v; reflexivity.
  - destruct t; try (eexists; destruct v; reflexivity).
    + (* TInt *) destruct v; simpl; destruct (ser_method_of w); eauto.
    + (* TStr *) destruct v; simpl in Hty; try discriminate Hty. simpl in Hk. discriminate Hk.
    + (* TNewtype *) exfalso. eapply Hn. reflexivity.
    + (* TEnum *) destruct v as [| | | | | | | | | | | | | |i p]; try (simpl in Hty; discriminate Hty).
      rewrite ht_enum in Hty. apply andb_true_iff in Hty as [_ Hp]. rewrite kt_enum in Hk. rewrite sk_enum.
      destruct (pick_cases key_variant (Err EBadCase) vs i) as [([vn var] & Hnth & E)|[_ E]]; rewrite E; [|eauto].
      rewrite (pick_nth _ _ _ _ _ Hnth) in Hk. unfold key_text_variant in Hk. unfold key_variant. simpl in *.
      destruct var; try discriminate Hk; eauto.
Qed.
