(* Proofs/SpansReparse.v — C14: the text at a span re-parses to the same item.
   Keys: `simple_key` run on exactly the text it consumed returns the same key (prefix-closedness of
   simple_key: token soundness + completeness, Proofs/LexEquivStrings.v, with an empty continuation).
   Values: `value` run on exactly the text it consumed returns a value with the same abstract data
   (value grammar soundness + completeness, Proofs/GrammarValue{Sound,Complete}.v) — for scalars, arrays
   and braces-delimited inline tables alike. *)
From TV Require Import Base.Prelude Base.Winnow Spec.Syntax.
From TV Require Import Model.Tree Model.Parse Model.Document.
From TV Require Import Proofs.Eoi.
From TV Require Import Proofs.LexEquivBase Proofs.LexEquivStrings.
From TV Require Import Proofs.GrammarBase Proofs.GrammarValueSound Proofs.GrammarValueComplete.
From TV Require Import Proofs.SpansExact.
Require Import Lia ZifyBool ZifyN ZifyNat.

Lemma adv_all t : adv t (new_input t) = mkIn [] (N.of_nat (length t)) 0.
Proof.
  unfold adv, advance, new_input; cbn [rest pos depth].
  replace (skipn (length t) t) with (@nil byte).
  - f_equal.
  - symmetry. rewrite <- (app_nil_r t) at 2. apply skipn_app_len.
Qed.

(* ---- keys -------------------------------------------------------------------------------------------------- *)
(* prefix-closedness: simple_key on exactly the text it consumed *)
Lemma simple_key_prefix_closed i rw k i' :
  simple_key i = Ok (rw, k) i' ->
  exists t, rest i = t ++ rest i' /\ pos i' = (pos i + N.of_nat (length t))%N
            /\ simple_key (new_input t) = Ok (raw_with_span (0, N.of_nat (length t))%N, k) (mkIn [] (N.of_nat (length t)) 0).
Proof.
  intro E. apply simple_key_sound in E as (t & Ht & [R A] & _). exists t. split; [exact R|]. split.
  - subst i'. unfold adv, advance; cbn [pos]. reflexivity.
  - pose proof (simple_key_complete (new_input t) t k [] Ht) as C. cbn [new_input rest pos] in C.
    rewrite app_nil_r in C. specialize (C eq_refl (fun _ => I)). rewrite C, adv_all. reflexivity.
Qed.

Theorem key_reparse_text i rw k i' :
  simple_key i = Ok (rw, k) i' ->
  exists t, rest i = t ++ rest i' /\ pos i' = (pos i + N.of_nat (length t))%N
            /\ parse_key t = POk (raw_with_span (0, N.of_nat (length t))%N, k).
Proof.
  intro E. apply simple_key_prefix_closed in E as (t & R & P & C). exists t. repeat split; auto.
  unfold parse_key. rewrite parse_all_eoi_unfold, C. reflexivity.
Qed.

(* with the cursor inside a source text s: the repr of the key is (a, b) and slicing s there re-parses to the key *)
Theorem key_reparse s i rw k i' :
  cursor_of s i -> simple_key i = Ok (rw, k) i' ->
  rw = RSpanned (pos i) (pos i') /\
  parse_key (slice s (pos i) (pos i')) = POk (raw_with_span (0, pos i' - pos i)%N, k).
Proof.
  intros C E. pose proof (simple_key_span_exact _ _ _ _ E) as (-> & _ & _).
  apply key_reparse_text in E as (t & R & P & K). split; [reflexivity|].
  destruct (cursor_slice s i i' t C R P) as [-> _]. rewrite K. repeat f_equal. lia.
Qed.

(* ---- values ------------------------------------------------------------------------------------------------ *)
Section AvalInd.
  Variable P : aval -> Prop.
  Hypothesis Hstr : forall s, P (AStr s).
  Hypothesis Hint : forall z, P (AInt z).
  Hypothesis Hfloat : forall f, P (AFloat f).
  Hypothesis Hbool : forall b, P (ABool b).
  Hypothesis Hdate : forall d, P (ADate d).
  Hypothesis Harr : forall l, Forall P l -> P (AArr l).
  Hypothesis Hinl : forall kvs, Forall (fun pv : list bytes * aval => P (snd pv)) kvs -> P (AInl kvs).
  Fixpoint aval_ind2 (a : aval) : P a :=
    match a with
    | AStr s => Hstr s | AInt z => Hint z | AFloat f => Hfloat f | ABool b => Hbool b | ADate d => Hdate d
    | AArr l => Harr l ((fix go (l : list aval) : Forall P l :=
                           match l with [] => Forall_nil _ | x :: r => Forall_cons x (aval_ind2 x) (go r) end) l)
    | AInl kvs => Hinl kvs ((fix go (l : list (list bytes * aval)) : Forall (fun pv => P (snd pv)) l :=
                               match l with [] => Forall_nil _ | x :: r => Forall_cons x (aval_ind2 (snd x)) (go r) end) kvs)
    end.
End AvalInd.

(* fewer enclosing containers: still within the limits *)
Lemma within_le a : forall d d', d' <= d -> within d a = true -> within d' a = true.
Proof.
  induction a as [s|z|f|b|dt|l IH|kvs IH] using aval_ind2; intros d d' Hle H; cbn [within] in *; auto.
  - apply andb_true_iff in H as [H1 H2]. apply andb_true_iff. split.
    + apply Nat.ltb_lt in H1. apply Nat.ltb_lt. lia.
    + rewrite forallb_forall in *. rewrite Forall_forall in IH. intros x Hx. apply (IH x Hx (S d) (S d')); [lia|]. apply H2, Hx.
  - apply andb_true_iff in H as [H1 H2]. apply andb_true_iff. split.
    + apply Nat.ltb_lt in H1. apply Nat.ltb_lt. lia.
    + rewrite forallb_forall in *. rewrite Forall_forall in IH. intros x Hx. specialize (H2 x Hx).
      apply andb_true_iff in H2 as [H3 H4]. apply andb_true_iff. split; [exact H3|].
      apply (IH x Hx (S d) (S d')); [lia|exact H4].
Qed.

Lemma vfollow_nil : vfollow [].
Proof. exists [], []. split; [reflexivity|]. split; [|exact I]. repeat constructor. Qed.

(* a sound value parser: the text it consumed re-parses, alone, to a value denoting the same data *)
Lemma sound_reparse_text (p : parser value) i v i' :
  vsound_at p -> p i = Ok v i' ->
  exists t, rest i = t ++ rest i' /\ pos i' = (pos i + N.of_nat (length t))%N
            /\ exists v', parse_value_raw t = POk v' /\ absv v' = absv v.
Proof.
  intros Hs E. apply Hs in E as (t & a & Ht & [R A] & (Hd & Hok & Hwi & _)). exists t. split; [exact R|]. split.
  { subst i'. unfold adv, advance; cbn [pos]. reflexivity. }
  destruct (value_complete t a (new_input t) [] Ht) as (v' & C & (Hd' & _)).
  - cbn [new_input rest]. symmetry. apply app_nil_r.
  - apply vfollow_nil.
  - exact Hok.
  - cbn [new_input depth]. eapply within_le; [|exact Hwi]. lia.
  - exists v'. split; [|congruence]. unfold parse_value_raw. rewrite parse_all_eoi_unfold, C, adv_all. reflexivity.
Qed.
(* ... with the cursor inside a source text s: the slice of s at the window *)
Lemma sound_reparse s (p : parser value) i v i' :
  vsound_at p -> cursor_of s i -> p i = Ok v i' ->
  exists v', parse_value_raw (slice s (pos i) (pos i')) = POk v' /\ absv v' = absv v.
Proof.
  intros Hs C E. apply (sound_reparse_text p _ _ _ Hs) in E as (t & R & P & H).
  destruct (cursor_slice s i i' t C R P) as [-> _]. exact H.
Qed.

Theorem value_reparse_text i v i' :
  value_ i = Ok v i' ->
  exists t, rest i = t ++ rest i' /\ pos i' = (pos i + N.of_nat (length t))%N
            /\ exists v', parse_value_raw t = POk v' /\ absv v' = absv v.
Proof. apply sound_reparse_text. exact value_sound. Qed.

Theorem value_reparse s i v i' :
  cursor_of s i -> value_ i = Ok v i' ->
  value_span v = Some (pos i, pos i') /\
  exists v', parse_value_raw (slice s (pos i) (pos i')) = POk v' /\ absv v' = absv v.
Proof. intros C E. split; [apply (value_exact _ _ _ E)|exact (sound_reparse s value_ _ _ _ value_sound C E)]. Qed.
