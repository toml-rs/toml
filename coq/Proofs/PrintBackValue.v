(* Proofs/PrintBackValue.v — C03 for values: `vplain`, the values whose inline tables use plain (not
   dotted) keys; the value after despanning (`tvalue`) and what Model/Encode.v `encode_value` prints
   for a value with its decor; how a dotted key shows in the items of an inline table (`has_bad`).
   The tiling theorem for values is in Proofs/PrintBackIValue.v, its case for plain values in
   Proofs/PrintBackKeyval.v. *)
From TV Require Import Base.Prelude Base.Winnow Gen.Consts Spec.Abnf Spec.Lex.
From TV Require Import Model.Tree Model.Parse Model.Encode.
From TV Require Import Proofs.LexEquivBase Proofs.TilingDefs Proofs.PrintBackBase Proofs.PrintBackEnc.
From TV Require Import Proofs.ModelFacts.
From TV Require Import Proofs.KvFacts.
Require Import Lia ZifyBool ZifyN ZifyNat.

(* values whose inline tables were written with plain keys only, hereditarily: no inline table
   that exists because of a dotted key (implicit / dotted flags) *)
Fixpoint vplain (v : value) : bool :=
  match v with
  | VScalar _ _ _ => true
  | VArray vals _ _ _ _ =>
    (fix go (l : list item) : bool := match l with [] => true | it :: tl => iplain it && go tl end) vals
  | VInline items _ im dt _ _ =>
    negb im && negb dt &&
    (fix go (l : list (key * item)) : bool := match l with [] => true | (_, it) :: tl => iplain it && go tl end) items
  end
with iplain (it : item) : bool := match it with IValue v => vplain v | _ => false end.

Definition items_plain (m : kvs) : bool := forallb (fun kv => iplain (snd kv)) m.

Lemma vplain_array vals tr c d sp : vplain (VArray vals tr c d sp) = forallb iplain vals.
Proof. cbn [vplain]. induction vals as [|it tl IH]; [reflexivity|]. cbn [forallb]. rewrite <- IH. reflexivity. Qed.
Lemma vplain_inline items pre im dt d sp : vplain (VInline items pre im dt d sp) = negb im && negb dt && items_plain items.
Proof.
  cbn [vplain]. f_equal. unfold items_plain. induction items as [|[k it] tl IH]; [reflexivity|]. cbn [forallb snd]. rewrite <- IH. reflexivity.
Qed.
Lemma vplain_decorate v p q : vplain (value_decorate v p q) = vplain v.
Proof. destruct v; reflexivity. Qed.

Definition nonscalar (v : value) : Prop := match v with VScalar _ _ _ => False | _ => True end.
Definition undot (v : value) : bool := match v with VInline _ _ _ dt _ _ => negb dt | _ => true end.

Lemma vplain_undot v : vplain v = true -> undot v = true.
Proof.
  destruct v as [x r d|vals tr c d sp|items pre im dt d sp]; try reflexivity. rewrite vplain_inline. cbn [undot].
  intro H. apply andb_true_iff in H as [H _]. apply andb_true_iff in H as [_ H]. exact H.
Qed.

(* ---- tvalue: the nested maps ---------------------------------------------------------------------------- *)
Definition tkv (s : bytes) (kv : key * item) : key * item := (tkey s (fst kv), titem s (snd kv)).

Lemma tvalue_array s vals tr c d sp :
  tvalue s (VArray vals tr c d sp) = VArray (map (titem s) vals) (traw s tr) c (tdecor s d) None.
Proof.
  cbn [tvalue]. f_equal; try (induction vals as [|it tl IH]; [reflexivity|cbn [map]; rewrite <- IH; reflexivity]).
Qed.

Lemma tvalue_inline s items pre im dt d sp :
  tvalue s (VInline items pre im dt d sp) = VInline (map (tkv s) items) (traw s pre) im dt (tdecor s d) None.
Proof.
  cbn [tvalue]. f_equal; try (induction items as [|[k it] tl IH]; [reflexivity|cbn [map tkv fst snd]; rewrite <- IH; reflexivity]).
Qed.

Lemma tvalue_scalar s x r d : tvalue s (VScalar x r d) = VScalar x (toraw s r) (tdecor s d).
Proof. reflexivity. Qed.

Definition core (s : bytes) (v : value) : value := tvalue s (value_decorate v REmpty REmpty).

Lemma decorate_decorate v a b p q : value_decorate (value_decorate v a b) p q = value_decorate v p q.
Proof. destruct v; reflexivity. Qed.

Lemma raw_encode_empty dflt : raw_encode REmpty dflt = [].
Proof. reflexivity. Qed.

Lemma value_size_decorated s v p q : value_size (tvalue s (value_decorate v p q)) = value_size (core s v).
Proof.
  unfold core. destruct v as [x r d|vals tr c d sp|items pre im dt d sp]; cbn [value_decorate];
    rewrite ?tvalue_array, ?tvalue_inline; reflexivity.
Qed.

(* a decorated value prints its decor around its core *)
Lemma enc_decorated s v p q fuel dflt dflt' :
  encode_value (S fuel) (tvalue s (value_decorate v p q)) dflt =
  raw_encode (traw s p) (fst dflt) ++ encode_value (S fuel) (core s v) dflt' ++ raw_encode (traw s q) (snd dflt).
Proof.
  unfold core. destruct v as [x r d|vals tr c d sp|items pre im dt d sp]; cbn [value_decorate].
  - rewrite !tvalue_scalar, !enc_scalar. unfold decor_prefix, decor_suffix. cbn [tdecor decor_new d_prefix d_suffix toraw traw].
    rewrite !raw_encode_empty. cbn [app]. rewrite ?app_nil_r, <- ?app_assoc. reflexivity.
  - rewrite !tvalue_array, !enc_array. unfold decor_prefix, decor_suffix. cbn [tdecor decor_new d_prefix d_suffix toraw traw].
    rewrite !raw_encode_empty. cbn [app]. rewrite <- ?app_assoc. cbn [app]. rewrite ?app_nil_r. reflexivity.
  - rewrite !tvalue_inline, !enc_inline. cbv zeta. unfold decor_prefix, decor_suffix. cbn [tdecor decor_new d_prefix d_suffix toraw traw].
    rewrite !raw_encode_empty. cbn [app]. rewrite <- ?app_assoc. cbn [app]. rewrite ?app_nil_r. reflexivity.
Qed.

(* what is known of a parsed value: if it is plain, its core prints as o *)
Definition vrend (s : bytes) (v : value) (o : bytes) : Prop :=
  vplain v = true -> forall fuel dflt, value_size (core s v) < fuel -> encode_value fuel (core s v) dflt = o.

(* a value with decor pre / suf recorded from the spans of the trivia w1 / w2 *)
Lemma vrend_decorated s v o i1 w1 j1 i2 w2 j2 :
  vrend s v o -> isrc s i1 -> splits i1 w1 j1 -> isrc s i2 -> splits i2 w2 j2 ->
  vplain v = true -> forall fuel dflt,
  value_size (tvalue s (value_decorate v (raw_with_span (pos i1, pos j1)) (raw_with_span (pos i2, pos j2)))) < fuel ->
  encode_value fuel (tvalue s (value_decorate v (raw_with_span (pos i1, pos j1)) (raw_with_span (pos i2, pos j2)))) dflt
  = ncr w1 ++ o ++ ncr w2.
Proof.
  intros Hv H1 S1 H2 S2 Hs fuel dflt Hf. destruct fuel as [|f]; [lia|].
  rewrite (enc_decorated s v _ _ f dflt ([], [])). rewrite (span_prints s i1 w1 j1 _ H1 S1), (span_prints s i2 w2 j2 _ H2 S2).
  rewrite value_size_decorated in Hf. rewrite (Hv Hs (S f) ([], []) Hf). reflexivity.
Qed.

Lemma titem_value s v : titem s (IValue v) = IValue (tvalue s v).
Proof. reflexivity. Qed.

Lemma enc_elems_value f first e tl :
  enc_elems f first (IValue e :: tl) =
  ((if first then [] else [x2c]) ++ encode_value f e (if first then DEFAULT_LEADING_VALUE_DECOR else DEFAULT_VALUE_DECOR))
  ++ enc_elems f false tl.
Proof. reflexivity. Qed.

(* ---- inline tables whose pairs have plain keys --------------------------------------------------------- *)
Definition plain_pair (kv : key * value) : list key * (key * item) := ([], (fst kv, IValue (snd kv))).
Definition mk_item (kv : key * value) : key * item := (fst kv, IValue (snd kv)).

Lemma loop_d_plain : forall kvl m m',
  table_from_pairs_loop_d m (map plain_pair kvl) = COk m' -> m' = m ++ map mk_item kvl.
Proof.
  induction kvl as [|[k v] tl IH]; intros m m' H; cbn [map plain_pair table_from_pairs_loop_d fst snd] in H.
  - injection H as <-. rewrite app_nil_r. reflexivity.
  - destruct (check_depth _); [discriminate|]. cbn [inline_insert] in H. cbn [Bool.eqb] in H.
    destruct (kv_get m (k_key k)); [discriminate|]. apply IH in H. rewrite H. unfold kv_push. rewrite <- app_assoc. reflexivity.
Qed.

Lemma spans_pass_plain kvl m : inline_spans_pass m (map plain_pair kvl) = m.
Proof.
  unfold inline_spans_pass. revert m. induction kvl as [|[k v] tl IH]; intro m; [reflexivity|].
  cbn [map plain_pair fold_left fst snd inline_set_spans]. apply IH.
Qed.

Lemma undot_tvalue s v : undot (tvalue s v) = undot v.
Proof. destruct v as [x r d|vals tr c d sp|items pre im dt d sp]; rewrite ?tvalue_array, ?tvalue_inline; reflexivity. Qed.

(* ---- a dotted key leaves an implicit inline table among the items: the result is not plain ---------------- *)
Definition ibad (it : item) : bool := match it with IValue (VInline _ _ true _ _ _) => true | _ => false end.
Definition has_bad (m : kvs) : bool := existsb (fun kv => ibad (snd kv)) m.

Lemma ibad_not_plain it : ibad it = true -> iplain it = false.
Proof.
  destruct it as [|v| |]; try discriminate. destruct v as [x r d|vals tr c d sp|items pre im dt d sp]; try discriminate.
  cbn [ibad iplain]. rewrite vplain_inline. destruct im; [reflexivity|discriminate].
Qed.

Lemma has_bad_not_plain m : has_bad m = true -> items_plain m = false.
Proof.
  unfold has_bad, items_plain. induction m as [|[k it] m IH]; [discriminate|]. cbn [existsb forallb snd]. intro H.
  apply orb_true_iff in H as [H | H]; [rewrite (ibad_not_plain it H); reflexivity|rewrite (IH H); apply andb_false_r].
Qed.

Lemma has_bad_push m k it : has_bad m = true \/ ibad it = true -> has_bad (kv_push m k it) = true.
Proof. unfold has_bad, kv_push. rewrite existsb_app. cbn [existsb snd]. intros [-> | ->]; [reflexivity|]. cbn [orb]. apply orb_true_r. Qed.

Lemma has_bad_set m k k' it0 it : kv_get m k = Some (k', it0) -> ibad it = true -> has_bad (kv_set m k it) = true.
Proof.
  unfold has_bad. induction m as [|[k1 v1] m IH]; cbn [kv_get kv_set]; [discriminate|].
  destruct (bytes_eqb (k_key k1) k); intros E Hb; cbn [existsb snd]; [rewrite Hb; reflexivity|].
  rewrite (IH E Hb). apply orb_true_r.
Qed.

Lemma kv_set_same_bad m k k' it0 it : kv_get m k = Some (k', it0) -> ibad it = ibad it0 -> has_bad (kv_set m k it) = has_bad m.
Proof.
  unfold has_bad. intros G Hb. destruct (kv_get_split m k k' it0 G) as (A & C & -> & _ & -> & _).
  rewrite !existsb_app. cbn [existsb snd]. rewrite Hb. reflexivity.
Qed.

Lemma inline_insert_bad m dh path pe k v m' :
  inline_insert m dh path pe k v = COk m' -> has_bad m = true \/ path <> [] -> has_bad m' = true.
Proof.
  destruct path as [|pk ptl]; cbn [inline_insert].
  - destruct (Bool.eqb dh pe); [discriminate|]. destruct (kv_get m (k_key k)); [discriminate|].
    intros E [Hb | Hn]; [|congruence]. injection E as <-. apply has_bad_push. left. exact Hb.
  - intros E _. destruct (kv_get m (k_key pk)) as [[k' it]|] eqn:G.
    + destruct it as [|val| |]; try discriminate. destruct val as [x r d|vals tr c d sp|sub pre imp dt dec sp]; try discriminate.
      destruct imp; cbn [negb] in E; [|discriminate].
      destruct (inline_insert sub dt ptl pe k v) as [sub'| |]; try discriminate. injection E as <-.
      apply (has_bad_set m _ _ _ _ G). reflexivity.
    + destruct (inline_insert [] true ptl pe k v) as [sub'| |]; try discriminate. injection E as <-.
      apply has_bad_push. right. reflexivity.
Qed.

Lemma loop_d_bad : forall pairs m m', table_from_pairs_loop_d m pairs = COk m' ->
  has_bad m = true \/ Exists (fun x => fst x <> []) pairs -> has_bad m' = true.
Proof.
  induction pairs as [|[path [k v]] tl IH]; intros m m' H Hb; cbn [table_from_pairs_loop_d] in H.
  - injection H as <-. destruct Hb as [Hb | Hb]; [exact Hb|inversion Hb].
  - destruct (check_depth _); [discriminate|].
    destruct (inline_insert m false path _ k v) as [m1| |] eqn:E; try discriminate.
    apply (IH m1 m' H). destruct Hb as [Hb | Hb].
    + left. apply (inline_insert_bad _ _ _ _ _ _ _ E). left. exact Hb.
    + inversion Hb as [? ? Hx|? ? Hx]; subst; [left; apply (inline_insert_bad _ _ _ _ _ _ _ E); right; exact Hx|right; exact Hx].
Qed.

Lemma set_spans_bad : forall path m e, has_bad (inline_set_spans m path e) = has_bad m.
Proof.
  induction path as [|k ptl IH]; intros m e; cbn [inline_set_spans]; [reflexivity|].
  destruct (kv_get m (k_key k)) as [[k' it]|] eqn:G; [|reflexivity].
  destruct it as [|val| |]; try reflexivity. destruct val as [x r d|vals tr c d sp|sub pre imp dt dec sp]; try reflexivity.
  apply (kv_set_same_bad m _ _ _ _ G). reflexivity.
Qed.

Lemma spans_pass_bad : forall pairs m, has_bad (inline_spans_pass m pairs) = has_bad m.
Proof.
  unfold inline_spans_pass. induction pairs as [|[path [k v]] tl IH]; intro m; cbn [fold_left]; [reflexivity|].
  rewrite IH. apply set_spans_bad.
Qed.

Lemma ws_stops_nil w j j' : ws_tok w -> splits j w j' -> stops wschar (rest j) -> w = [].
Proof.
  intros Hw [R _] Hst. destruct w as [|b w]; [reflexivity|]. rewrite R in Hst. cbn [app stops] in Hst.
  unfold ws_tok, all in Hw. cbn [forallb] in Hw. apply andb_true_iff in Hw as [Hb _]. congruence.
Qed.
