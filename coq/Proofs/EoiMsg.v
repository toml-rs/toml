(* Proofs/EoiMsg.v — lemmas behind Props/C15.v, part 4: which errors of the three stand-alone
   entry points (parse_value_raw / parse_key / parse_key_path = Value::from_str, Key::from_str,
   Key::parse) can carry an empty message; they run `terminated(P, end_of_input)`.

   Without it every input with something left over after a complete value / key is
   rejected with an empty message (Proofs/Eoi.v: parse_all_trailing); with it that rejection has the
   context "end of input" (parse_all_eoi_trailing).  What remains:

     value     : exactly the known class of the document parser, a bare CR at the error offset or
                 right before it (array whitespace: `[ CR ]`), inherited from `value_`
                 (value_message, value_message_refuted)
     key path  : nothing; every error of `key` is below its .context(Label(key)) or is the
                 recursion-limit cause (key_path_message, no side condition)
     key       : nothing; `simple_key` carries .context(Label(key)) around its whole dispatch
                 (key_message, no side condition).  Before that context was added, peek(any) on the
                 empty input and take_while(1.., UNQUOTED_CHAR) on a first byte that starts no key
                 failed with the bare error: Key::from_str of the empty string and of `!` had an
                 EMPTY message (former finding C15-empty-message-key-start, repaired in
                 parser/key.rs; the former witnesses are kept as regression examples below). *)
From Coq Require Import List Bool Arith NArith Lia.
From Coq.Strings Require Import Byte.
From TV Require Import Base.Winnow Gen.Consts.
From TV Require Import Model.Parse Model.Document.
From TV Require Import Proofs.ErrorRange Proofs.ErrorMsg Proofs.Eoi.
Import ListNotations.

(* every error of `p` started on the particular input i is labelled (no bare-CR escape) *)
Definition lab0 {A} (p : parser A) (i : input) : Prop :=
  forall e i', (p i = Cut e i' \/ p i = Bt e i') -> labelled e.

(* ---- from the parser to the entry point ------------------------------------------------------------ *)
Lemma eoi_labelled {A} (p : parser A) s e at_ :
  lab0 p (new_input s) -> lift_outcome (parse_all (terminated_eoi p) s) = PErr e at_ -> labelled e.
Proof.
  intros Hl. rewrite parse_all_eoi_unfold.
  destruct (p (new_input s)) as [a i|e1 i|e1 i|st] eqn:E.
  - destruct (rest i); cbn [lift_outcome]; [discriminate|].
    intro H. injection H as <- _. right. reflexivity.
  - cbn [lift_outcome]. intro H. injection H as <- _. apply (Hl e1 i). right. exact E.
  - cbn [lift_outcome]. intro H. injection H as <- _. apply (Hl e1 i). left. exact E.
  - discriminate.
Qed.

Lemma eoi_good {A} (p : parser A) s e at_ :
  C s p -> B s p -> lift_outcome (parse_all (terminated_eoi p) s) = PErr e at_ ->
  labelled e \/ (exists a, at_ = Some a /\ bare_cr_near s a = true).
Proof.
  intros Hc Hb. rewrite parse_all_eoi_unfold.
  destruct (p (new_input s)) as [a i|e1 i|e1 i|st] eqn:E.
  - destruct (rest i); cbn [lift_outcome]; [discriminate|].
    intro H. injection H as <- _. left. right. reflexivity.
  - cbn [lift_outcome]. intro H. injection H as <- <-.
    destruct (Hb _ _ _ (wf_new_input s) E) as [L|R]; [left; exact L|right; eauto].
  - cbn [lift_outcome]. intro H. injection H as <- <-.
    destruct (Hc _ _ _ (wf_new_input s) E) as [L|R]; [left; exact L|right; eauto].
  - discriminate.
Qed.

(* ---- value ------------------------------------------------------------------------------------------- *)
Lemma value_message s e at_ :
  bare_cr_near_o s at_ = false -> parse_value_raw s = PErr e at_ -> e_cause e <> None \/ e_ctx e = true.
Proof.
  intros Hn H. unfold parse_value_raw in H.
  destruct (eoi_good value_ s e at_ (C_value s) (B_value s) H) as [L|(a & -> & Hb)]; [exact L|].
  cbn in Hn. congruence.
Qed.

(* the premise is needed: `[ CR ]` as a value (the CR is consumed by trivia.rs `newline`, the LF is
   missing; offset 2, right after the CR) *)
Lemma value_message_refuted :
  exists s e at_, parse_value_raw s = PErr e (Some at_) /\ e_cause e = None /\ e_ctx e = false
                  /\ bare_cr_near s at_ = true.
Proof. exists [x5b; x0d; x5d], err0, 2%N. vm_compute. auto. Qed.

(* ---- key path ---------------------------------------------------------------------------------------- *)
Lemma key_lab0 i : lab0 key_ i.
Proof.
  intros e i'. unfold key_, bind, try_map.
  destruct (context (separated1 key_part (byte_ DOT_SEP)) i) as [k i1|e1 i1|e1 i1|st] eqn:E.
  - destruct (check_depth (length k)).
    + intros [H|H]; [discriminate H|]. injection H as <- _. left. discriminate.
    + destruct (fix_key_path k); intros [H|H]; discriminate H.
  - intros [H|H]; [discriminate H|]. injection H as <- _. eapply context_err. right. exact E.
  - intros [H|H]; [|discriminate H]. injection H as <- _. eapply context_err. left. exact E.
  - intros [H|H]; discriminate H.
Qed.

Lemma key_path_message s e at_ :
  parse_key_path s = PErr e at_ -> e_cause e <> None \/ e_ctx e = true.
Proof. unfold parse_key_path. apply eoi_labelled, key_lab0. Qed.

(* ---- key --------------------------------------------------------------------------------------------- *)
(* every error of simple_key is the error of its `.context(Label("key"))` dispatch *)
Lemma simple_key_lab0 i : lab0 simple_key i.
Proof.
  intros e i'. unfold simple_key, pmap, with_span.
  match goal with |- context [context ?q i] => set (d := q) end.
  destruct (context d i) as [k i1|e1 i1|e1 i1|st] eqn:E.
  - intros [H|H]; discriminate H.
  - intros [H|H]; [discriminate H|]. injection H as <- _. eapply context_err. right. exact E.
  - intros [H|H]; [|discriminate H]. injection H as <- _. eapply context_err. left. exact E.
  - intros [H|H]; discriminate H.
Qed.

Lemma key_message s e at_ :
  parse_key s = PErr e at_ -> e_cause e <> None \/ e_ctx e = true.
Proof. unfold parse_key. apply eoi_labelled, simple_key_lab0. Qed.

(* the witnesses of the former finding: the empty input and `!` are still rejected at offset 0, now with
   the context *)
Lemma key_message_former_witnesses :
  parse_key [] = PErr (mkErr None true) (Some 0%N) /\ parse_key [x21] = PErr (mkErr None true) (Some 0%N)
  /\ parse_key [x0d] = PErr (mkErr None true) (Some 0%N).
Proof. vm_compute. repeat split. Qed.
