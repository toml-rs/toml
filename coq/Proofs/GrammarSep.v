(* Proofs/GrammarSep.v — winnow's `separated(0.., p, sep)` / `separated(1.., p, sep)` without
   fuel: `seps p sep i l i'` says that starting at i (just after an element) the loop reads
   separator-element pairs producing l and stops at i', either because the separator fails
   or because the element after a separator fails softly — in which case the input is RESET
   TO BEFORE THAT SEPARATOR (the semantics that lets `[1, 2, ]` keep its trailing comma for
   a later `opt(',')`, and makes `{a = 1,}` fail at the comma). *)
From TV Require Import Base.Prelude Base.Winnow.
From TV Require Import Proofs.LexEquivBase.
Require Import Lia.

Section Seps.
  Context {A Sp : Type}.
  Variable p : parser A.
  Variable sep : parser Sp.

  Inductive seps : input -> list A -> input -> Prop :=
  | seps_stop_sep i : fails sep i -> seps i [] i
  | seps_stop_elem i x i1 :
      sep i = Ok x i1 -> length (rest i1) < length (rest i) -> fails p i1 -> seps i [] i
  | seps_cons i x i1 a i2 l i3 :
      sep i = Ok x i1 -> length (rest i1) < length (rest i) ->
      p i1 = Ok a i2 -> length (rest i2) <= length (rest i1) ->
      seps i2 l i3 -> seps i (a :: l) i3.

  Lemma separated_loop_seps i l i' : seps i l i' ->
    forall fuel acc, length (rest i) < fuel -> separated_loop fuel p sep acc i = Ok (rev acc ++ l) i'.
  Proof.
    induction 1 as [i (e & j & F)|i x i1 E Hlt (e & j & F)|i x i1 a i2 l i3 E Hlt E2 Hle R IH];
      intros fuel acc Hf; (destruct fuel as [|fuel]; [lia|]); cbn [separated_loop].
    - rewrite F, app_nil_r. reflexivity.
    - rewrite E. destruct (Nat.eqb (length (rest i1)) (length (rest i))) eqn:Q; [apply Nat.eqb_eq in Q; lia|].
      rewrite F, app_nil_r. reflexivity.
    - rewrite E. destruct (Nat.eqb (length (rest i1)) (length (rest i))) eqn:Q; [apply Nat.eqb_eq in Q; lia|].
      rewrite E2. rewrite IH by lia. cbn [rev]. rewrite <- app_assoc. reflexivity.
  Qed.

  Lemma separated_loop_inv : shrinking p -> shrinking sep ->
    forall fuel acc i l i', separated_loop fuel p sep acc i = Ok l i' ->
    exists l', l = rev acc ++ l' /\ seps i l' i'.
  Proof.
    intros Hp Hs. induction fuel as [|fuel IH]; intros acc i l i' H; cbn [separated_loop] in H; [discriminate|].
    destruct (sep i) as [x i1|e j|e j|s] eqn:E; try discriminate.
    - destruct (Nat.eqb (length (rest i1)) (length (rest i))) eqn:Q; [discriminate|].
      apply Nat.eqb_neq in Q. pose proof (Hs _ _ _ E) as Hle.
      destruct (p i1) as [a i2|e j|e j|s] eqn:E2; try discriminate.
      + apply IH in H as (l' & -> & R). exists (a :: l'). split.
        * cbn [rev]. rewrite <- app_assoc. reflexivity.
        * eapply seps_cons; [exact E|lia|exact E2|eapply Hp, E2|exact R].
      + injection H as <- <-. exists []. split; [rewrite app_nil_r; reflexivity|].
        eapply seps_stop_elem; [exact E|lia|]. exists e, j. exact E2.
    - injection H as <- <-. exists []. split; [rewrite app_nil_r; reflexivity|].
      apply seps_stop_sep. exists e, j. exact E.
  Qed.

  (* separated(0.., p, sep) *)
  Lemma separated0_nil i : fails p i -> separated0 p sep i = Ok [] i.
  Proof. intros (e & j & F). unfold separated0. rewrite F. reflexivity. Qed.

  Lemma separated0_cons i a i1 l i' :
    p i = Ok a i1 -> seps i1 l i' -> separated0 p sep i = Ok (a :: l) i'.
  Proof.
    intros E R. unfold separated0. rewrite E. rewrite (separated_loop_seps i1 l i' R) by lia. reflexivity.
  Qed.

  Lemma separated0_inv i l i' : shrinking p -> shrinking sep -> separated0 p sep i = Ok l i' ->
    (l = [] /\ i' = i /\ fails p i) \/
    (exists a i1 l', l = a :: l' /\ p i = Ok a i1 /\ seps i1 l' i').
  Proof.
    intros Hp Hs H. unfold separated0 in H. destruct (p i) as [a i1|e j|e j|s] eqn:E; try discriminate.
    - right. apply (separated_loop_inv Hp Hs) in H as (l' & -> & R). exists a, i1, l'. auto.
    - injection H as <- <-. left. split; [reflexivity|]. split; [reflexivity|]. exists e, j. exact E.
  Qed.

  (* separated(1.., p, sep) *)
  Lemma separated1_cons i a i1 l i' :
    p i = Ok a i1 -> seps i1 l i' -> separated1 p sep i = Ok (a :: l) i'.
  Proof.
    intros E R. unfold separated1. rewrite E. rewrite (separated_loop_seps i1 l i' R) by lia. reflexivity.
  Qed.

  Lemma separated1_fails i : fails p i -> fails (separated1 p sep) i.
  Proof. intros (e & j & F). unfold fails, separated1. rewrite F. eauto. Qed.

  Lemma separated1_inv i l i' : shrinking p -> shrinking sep -> separated1 p sep i = Ok l i' ->
    exists a i1 l', l = a :: l' /\ p i = Ok a i1 /\ seps i1 l' i'.
  Proof.
    intros Hp Hs H. unfold separated1 in H. destruct (p i) as [a i1|e j|e j|s] eqn:E; try discriminate.
    apply (separated_loop_inv Hp Hs) in H as (l' & -> & R). exists a, i1, l'. auto.
  Qed.

  (* committed failures: the loop commits only if the separator or an element does *)
  Lemma separated_loop_cut : forall fuel acc i e j, separated_loop fuel p sep acc i = Cut e j ->
    exists i0, (sep i0 = Cut e j) \/ (p i0 = Cut e j).
  Proof.
    induction fuel as [|fuel IH]; intros acc i e j H; cbn [separated_loop] in H; [discriminate|].
    destruct (sep i) as [x i1|e' j'|e' j'|s] eqn:E; try discriminate.
    - destruct (Nat.eqb (length (rest i1)) (length (rest i))); [discriminate|].
      destruct (p i1) as [a i2|e' j'|e' j'|s] eqn:E2; try discriminate.
      + eapply IH, H.
      + injection H as <- <-. exists i1. right. exact E2.
    - injection H as <- <-. exists i. left. exact E.
  Qed.
End Seps.

(* the relation only depends on the behaviour of p and sep *)
Lemma seps_ext {A Sp} (p q : parser A) (sep : parser Sp) i l i' :
  (forall j, length (rest j) <= length (rest i) -> p j = q j) -> seps p sep i l i' -> seps q sep i l i'.
Proof.
  intros Hq R. induction R as [i F|i x i1 E Hlt (e & j & F)|i x i1 a i2 l i3 E Hlt E2 Hle R IH].
  - apply seps_stop_sep, F.
  - eapply seps_stop_elem; [exact E|exact Hlt|]. exists e, j. rewrite <- Hq by lia. exact F.
  - eapply seps_cons; [exact E|exact Hlt|rewrite <- Hq by lia; exact E2|exact Hle|].
    apply IH. intros j Hj. apply Hq. lia.
Qed.

(* ---- committed failures inside the loop ------------------------------------------------------------ *)
Definition cuts {A} (p : parser A) (i : input) : Prop := exists e j, p i = Cut e j.

Section SepsCut.
  Context {A Sp : Type}.
  Variable p : parser A.
  Variable sep : parser Sp.

  (* starting at i (just after an element) the loop reads separator-element pairs and then an
     element fails with commitment *)
  Inductive seps_cut : input -> Prop :=
  | sc_elem i x i1 : sep i = Ok x i1 -> length (rest i1) < length (rest i) -> cuts p i1 -> seps_cut i
  | sc_next i x i1 a i2 :
      sep i = Ok x i1 -> length (rest i1) < length (rest i) ->
      p i1 = Ok a i2 -> length (rest i2) <= length (rest i1) -> seps_cut i2 -> seps_cut i.

  Lemma separated_loop_cuts i : seps_cut i ->
    forall fuel acc, length (rest i) < fuel -> exists e j, separated_loop fuel p sep acc i = Cut e j.
  Proof.
    induction 1 as [i x i1 E Hlt (e & j & F)|i x i1 a i2 E Hlt E2 Hle R IH]; intros fuel acc Hf;
      (destruct fuel as [|fuel]; [lia|]); cbn [separated_loop]; rewrite E;
      (destruct (Nat.eqb (length (rest i1)) (length (rest i))) eqn:Q; [apply Nat.eqb_eq in Q; lia|]).
    - rewrite F. eauto.
    - rewrite E2. apply IH. lia.
  Qed.

  Lemma separated0_cuts_first i : cuts p i -> cuts (separated0 p sep) i.
  Proof. intros (e & j & F). unfold cuts, separated0. rewrite F. eauto. Qed.

  Lemma separated0_cuts_loop i a i1 : p i = Ok a i1 -> seps_cut i1 -> cuts (separated0 p sep) i.
  Proof. intros E R. unfold cuts, separated0. rewrite E. apply (separated_loop_cuts i1 R). lia. Qed.
End SepsCut.

(* propagation of committed failures through the sequencing combinators *)
Lemma cuts_bind {A B} (p : parser A) (f : A -> parser B) i : cuts p i -> cuts (bind p f) i.
Proof. intros (e & j & F). unfold cuts, bind. rewrite F. eauto. Qed.
Lemma cuts_bind_ok {A B} (p : parser A) (f : A -> parser B) i a i' : p i = Ok a i' -> cuts (f a) i' -> cuts (bind p f) i.
Proof. intros E (e & j & F). unfold cuts, bind. rewrite E, F. eauto. Qed.
Lemma cuts_pmap {A B} (f : A -> B) (p : parser A) i : cuts p i -> cuts (pmap f p) i.
Proof. intros (e & j & F). unfold cuts, pmap. rewrite F. eauto. Qed.
Lemma cuts_cut_err {A} (p : parser A) i : cuts p i -> cuts (cut_err p) i.
Proof. intros (e & j & F). unfold cuts, cut_err. rewrite F. eauto. Qed.
Lemma cuts_cut_err_fails {A} (p : parser A) i : fails p i -> cuts (cut_err p) i.
Proof. intros (e & j & F). unfold cuts, cut_err. rewrite F. eauto. Qed.
Lemma cuts_context {A} (p : parser A) i : cuts p i -> cuts (context p) i.
Proof. intros (e & j & F). unfold cuts, context. rewrite F. eauto. Qed.
Lemma cuts_alt_l {A} (p q : parser A) i : cuts p i -> cuts (alt p q) i.
Proof. intros (e & j & F). unfold cuts, alt. rewrite F. eauto. Qed.
Lemma cuts_alt_r {A} (p q : parser A) i : fails p i -> cuts q i -> cuts (alt p q) i.
Proof. intros (e & j & F) Hq. unfold cuts, alt. rewrite F. exact Hq. Qed.
Lemma cuts_with_span {A} (p : parser A) i : cuts p i -> cuts (with_span p) i.
Proof. intros (e & j & F). unfold cuts, with_span. rewrite F. eauto. Qed.
Lemma cuts_try_map {A B} (f : A -> tm B) (p : parser A) i : cuts p i -> cuts (try_map f p) i.
Proof. intros (e & j & F). unfold cuts, try_map. rewrite F. eauto. Qed.
Lemma fails_try_map_err {A B} (f : A -> tm B) (p : parser A) i a i' c : p i = Ok a i' -> f a = TmErr c -> fails (try_map f p) i.
Proof. intros E F. unfold fails, try_map. rewrite E, F. eauto. Qed.
Lemma cuts_not_ok {A} (p : parser A) i a i' : cuts p i -> p i <> Ok a i'.
Proof. intros (e & j & F). rewrite F. discriminate. Qed.
