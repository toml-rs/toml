(* Proofs/DatetimeEq.v — the standalone date-time parser (toml_datetime FromStr) and the
   document grammar's date_time agree; closure under RFC 3339 ranges; truncation of the
   fraction; print/parse round trip.  All lemmas behind Props/C12.v. *)
From Coq Require Import List Bool Arith NArith ZArith Lia ZifyBool ZifyN.
From Coq.Strings Require Import Byte.
From TV Require Import Base.Prelude Base.Utf8 Base.Winnow Gen.Consts Model.Datetime Model.DatetimeStd Spec.DatetimeSpec.
Import ListNotations.
From TV Require Import Base.BytesFacts Base.ListFacts Base.Utf8Facts.

(* bytes and digits *)

Lemma in_class_digit b : in_class DT_DIGIT b = is_digit b.
Proof. unfold in_class, DT_DIGIT, is_digit. cbn [existsb fst snd]. apply orb_false_r. Qed.

Lemma in_class_delim b :
  in_class TIME_DELIM b = byte_eqb b x54 || byte_eqb b x74 || byte_eqb b x20.
Proof.
  rewrite !byte_eqb_n. unfold in_class, TIME_DELIM. cbn [existsb fst snd].
  change (b2n x54) with 84%N. change (b2n x74) with 116%N. change (b2n x20) with 32%N. lia.
Qed.

Lemma digit_number_start b : is_digit b = true -> in_class VALUE_NUMBER_START b = true.
Proof.
  intro H. apply is_digit_iff in H. unfold in_class, VALUE_NUMBER_START. cbn [existsb fst snd]. lia.
Qed.

Lemma utf8_valid_digits l : forallb is_digit l = true -> utf8_valid_b l = true.
Proof. intro H. apply utf8_ascii. revert H. apply forallb_impl, digit_ascii. Qed.

Lemma colon_not_digit : is_digit colon = false.
Proof. reflexivity. Qed.

(* primitives of the grammar expressed through the primitives of the standalone parser *)
Fixpoint pow10 (k : nat) : N := match k with O => 1%N | S k' => (10 * pow10 k')%N end.

Lemma pow10_pos k : (0 < pow10 k)%N.
Proof. induction k as [|k IH]; cbn [pow10]; lia. Qed.

Lemma pow10_add a b : pow10 (a + b) = (pow10 a * pow10 b)%N.
Proof.
  induction a as [|a IH]; [cbn [Nat.add pow10]; lia|].
  change (pow10 (S a + b)) with (10 * pow10 (a + b))%N. rewrite IH. cbn [pow10]. lia.
Qed.

(* a run of k digits reads as a number below 10^k *)
Lemma dec_value_acc_bound l : forall acc,
  forallb is_digit l = true -> (dec_value_acc acc l < (acc + 1) * pow10 (length l))%N.
Proof.
  induction l as [|b l IH]; intros acc Hd; cbn [dec_value_acc length pow10]; [lia|].
  cbn [forallb] in Hd. apply andb_true_iff in Hd as [Hb Hd]. apply is_digit_val in Hb.
  specialize (IH (acc * 10 + digit_val b)%N Hd). nia.
Qed.

Lemma dec_value_bound l : forallb is_digit l = true -> (dec_value l < pow10 (length l))%N.
Proof. intro Hd. pose proof (dec_value_acc_bound l 0 Hd). unfold dec_value. lia. Qed.

Lemma parse_unsigned_digits bits l :
  l <> [] -> forallb is_digit l = true -> (pow10 (length l) <= 2 ^ bits)%N ->
  parse_unsigned bits l = Some (dec_value l).
Proof.
  intros Hne Hd Hfit. pose proof (dec_value_bound l Hd) as Hv. unfold parse_unsigned.
  destruct l; [congruence|]. rewrite Hd. cbv zeta.
  destruct (_ <? _)%N eqn:E; [reflexivity|lia].
Qed.

Lemma parse_unsigned_2 b0 b1 :
  is_digit b0 = true -> is_digit b1 = true ->
  parse_unsigned 8 [b0; b1] = Some (digit_val b0 * 10 + digit_val b1)%N.
Proof.
  intros H0 H1. apply (parse_unsigned_digits 8 [b0; b1]); [discriminate| |cbn; lia].
  cbn [forallb]. rewrite H0, H1. reflexivity.
Qed.

Lemma parse_unsigned_4 b0 b1 b2 b3 :
  is_digit b0 = true -> is_digit b1 = true -> is_digit b2 = true -> is_digit b3 = true ->
  parse_unsigned 16 [b0; b1; b2; b3]
  = Some (digit_val b0 * 1000 + digit_val b1 * 100 + digit_val b2 * 10 + digit_val b3)%N.
Proof.
  intros H0 H1 H2 H3. rewrite (parse_unsigned_digits 16 [b0; b1; b2; b3]); [|discriminate| |cbn; lia].
  - unfold dec_value. cbn [dec_value_acc]. f_equal. lia.
  - cbn [forallb]. rewrite H0, H1, H2, H3. reflexivity.
Qed.

Lemma two_digit_field_two lo hi s p d :
  two_digit_field lo hi (mkIn s p d) =
  match two s with
  | Some (v, r) => if (lo <=? v)%N && (v <=? hi)%N then Ok v (mkIn r (p + 2)%N d)
                   else Bt (err_of OutOfRange) (mkIn s p d)
  | None => Bt err0 (mkIn s p d)
  end.
Proof.
  unfold two_digit_field, try_map, unsigned_digits, unchecked_utf8, take_while_mn, two, sbind, sdigit, sret.
  cbn [rest].
  destruct s as [|b0 [|b1 r]].
  - reflexivity.
  - cbn [take_upto]. rewrite in_class_digit. destruct (is_digit b0); reflexivity.
  - cbn [take_upto]. rewrite !in_class_digit. destruct (is_digit b0) eqn:E0; [|reflexivity].
    destruct (is_digit b1) eqn:E1; [|reflexivity].
    change (Nat.ltb (length [b0; b1]) 2) with false. cbv iota.
    rewrite utf8_valid_digits by (cbn [forallb]; rewrite E0, E1; reflexivity).
    rewrite (parse_unsigned_2 _ _ E0 E1).
    destruct (_ && _); reflexivity.
Qed.

Definition four : sp N :=
  sbind sdigit (fun y1 => sbind sdigit (fun y2 => sbind sdigit (fun y3 => sbind sdigit (fun y4 =>
    sret (y1 * 1000 + y2 * 100 + y3 * 10 + y4)%N)))).

Lemma date_fullyear_four s p d :
  date_fullyear (mkIn s p d) =
  match four s with
  | Some (v, r) => Ok v (mkIn r (p + 4)%N d)
  | None => Bt err0 (mkIn s p d)
  end.
Proof.
  unfold date_fullyear, try_map, unsigned_digits, unchecked_utf8, take_while_mn, four, sbind, sdigit, sret.
  cbn [rest].
  destruct s as [|b0 s]; [reflexivity|].
  cbn [take_upto]. rewrite in_class_digit. destruct (is_digit b0) eqn:E0; [|reflexivity].
  destruct s as [|b1 s]; [reflexivity|].
  cbn [take_upto]. rewrite in_class_digit. destruct (is_digit b1) eqn:E1; [|reflexivity].
  destruct s as [|b2 s]; [reflexivity|].
  cbn [take_upto]. rewrite in_class_digit. destruct (is_digit b2) eqn:E2; [|reflexivity].
  destruct s as [|b3 s]; [reflexivity|].
  cbn [take_upto]. rewrite in_class_digit. destruct (is_digit b3) eqn:E3; [|reflexivity].
  change (Nat.ltb (length [b0; b1; b2; b3]) 4) with false. cbv iota.
  rewrite utf8_valid_digits by (cbn [forallb]; rewrite E0, E1, E2, E3; reflexivity).
  rewrite (parse_unsigned_4 _ _ _ _ E0 E1 E2 E3). reflexivity.
Qed.

Lemma bind_byte {B} c (k : parser B) s p d :
  bind (byte_ c) (fun _ => k) (mkIn s p d) =
  match sexpect c s with
  | Some (_, r) => k (mkIn r (p + 1)%N d)
  | None => Bt err0 (mkIn s p d)
  end.
Proof.
  unfold bind, byte_, one_of, sexpect. cbn [rest].
  destruct s as [|b r]; [reflexivity|]. rewrite (byte_eqb_sym c b).
  destruct (byte_eqb b c); reflexivity.
Qed.

Lemma bind_two {B} lo hi (k : N -> parser B) s p d :
  bind (two_digit_field lo hi) k (mkIn s p d) =
  match two s with
  | Some (v, r) => if (lo <=? v)%N && (v <=? hi)%N then k v (mkIn r (p + 2)%N d)
                   else Bt (err_of OutOfRange) (mkIn s p d)
  | None => Bt err0 (mkIn s p d)
  end.
Proof.
  unfold bind. rewrite two_digit_field_two.
  destruct (two s) as [[v r]|]; [|reflexivity]. destruct (_ && _); reflexivity.
Qed.

(* the fraction of a second *)
Definition W : list N :=
  [100000000; 10000000; 1000000; 100000; 10000; 1000; 100; 10; 1]%N.

(* value of a digit run as a fraction, digit k weighing 10^(8-k); digits past the ninth
   weigh nothing *)
Fixpoint fracval (i : nat) (ds : bytes) : N :=
  match ds with
  | [] => 0%N
  | b :: r => (nth i W 0 * digit_val b + fracval (S i) r)%N
  end.

Lemma weight_step i acc v :
  (if Nat.ltb i 9 then acc + 10 ^ (8 - N.of_nat i) * v else acc)%N = (acc + nth i W 0 * v)%N.
Proof.
  do 9 (destruct i as [|i]; [reflexivity|]).
  change (Nat.ltb (S (S (S (S (S (S (S (S (S i))))))))) 9) with false. cbv iota.
  cbn [nth W]. destruct i; lia.
Qed.

Lemma frac_loop_span s : forall i acc,
  frac_loop i acc s =
  ((acc + fracval i (fst (span_while is_digit s)))%N,
   (i + length (fst (span_while is_digit s)))%nat,
   snd (span_while is_digit s)).
Proof.
  induction s as [|b r IH]; intros i acc.
  - cbn [frac_loop span_while fst snd fracval length]. f_equal. f_equal; lia.
  - cbn [frac_loop span_while]. destruct (is_digit b).
    + rewrite IH. destruct (span_while is_digit r) as [a q]. cbn [fst snd fracval length].
      rewrite weight_step. f_equal. f_equal; lia.
    + cbn [fst snd fracval length]. f_equal. f_equal; lia.
Qed.

Lemma skipn_span f s : skipn (length (fst (span_while f s))) s = snd (span_while f s).
Proof.
  induction s as [|b r IH]; [reflexivity|]. cbn [span_while]. destruct (f b); [|reflexivity].
  destruct (span_while f r) as [a q]. cbn [fst snd length skipn] in *. exact IH.
Qed.

Lemma fracval_ge l : forall i, (9 <= i)%nat -> fracval i l = 0%N.
Proof.
  induction l as [|b l IH]; intros i Hi; [reflexivity|]. cbn [fracval].
  rewrite (IH (S i)) by lia. rewrite nth_overflow by (change (length W) with 9%nat; lia). lia.
Qed.

Lemma fracval_firstn l : forall i, fracval i l = fracval i (firstn (9 - i) l).
Proof.
  induction l as [|b l IH]; intros i.
  - rewrite firstn_nil. reflexivity.
  - destruct (9 - i)%nat as [|k] eqn:E.
    + cbn [firstn]. rewrite fracval_ge by lia. reflexivity.
    + cbn [firstn fracval]. rewrite (IH (S i)). replace (9 - S i)%nat with k by lia. reflexivity.
Qed.

Lemma pow2_32 : (2 ^ 32 = 4294967296)%N.
Proof. reflexivity. Qed.

Lemma W_nth i : (i < 9)%nat -> nth i W 0%N = pow10 (8 - i).
Proof. intro H. do 9 (destruct i as [|i]; [reflexivity|]). lia. Qed.

Lemma DT_SCALE_nth n : (1 <= n <= 9)%nat -> nth_error DT_SCALE n = Some (pow10 (9 - n)).
Proof. intro H. destruct n as [|n]; [lia|]. do 9 (destruct n as [|n]; [reflexivity|]). lia. Qed.

(* digit k of the fraction weighs 10^(8-k): a run that ends at or before the ninth place is its
   decimal value shifted up to nine places *)
Lemma fracval_dec l : forall i acc, (i + length l <= 9)%nat ->
  (acc * pow10 (9 - i) + fracval i l = dec_value_acc acc l * pow10 (9 - i - length l))%N.
Proof.
  induction l as [|b l IH]; intros i acc Hl; cbn [fracval dec_value_acc length] in *.
  - rewrite Nat.sub_0_r. lia.
  - rewrite W_nth by lia. replace (9 - i - S (length l))%nat with (9 - S i - length l)%nat by lia.
    rewrite <- (IH (S i)) by lia. replace (9 - i)%nat with (S (8 - i)) by lia.
    replace (9 - S i)%nat with (8 - i)%nat by lia. cbn [pow10]. ring.
Qed.

Lemma secfrac_short l :
  (1 <= length l <= 9)%nat -> forallb is_digit l = true ->
  parse_unsigned 32 l = Some (dec_value l) /\
  exists sc, nth_error DT_SCALE (length l) = Some sc /\
             (dec_value l * sc = fracval 0 l)%N /\ (fracval 0 l <= 999999999)%N.
Proof.
  intros Hlen Hd. pose proof (dec_value_bound l Hd) as Hv.
  assert (Hf : fracval 0 l = (dec_value l * pow10 (9 - length l))%N)
    by exact (fracval_dec l 0 0 (proj2 Hlen)).
  assert (H9 : (pow10 (length l) * pow10 (9 - length l) = 1000000000)%N).
  { rewrite <- pow10_add. replace (length l + (9 - length l))%nat with 9%nat by lia. reflexivity. }
  pose proof (pow10_pos (9 - length l)) as Hp.
  split.
  - apply parse_unsigned_digits; [destruct l; [cbn in Hlen; lia|discriminate]|exact Hd|].
    rewrite pow2_32. clear - H9 Hp. nia.
  - exists (pow10 (9 - length l)). split; [apply DT_SCALE_nth, Hlen|]. split; [symmetry; exact Hf|].
    rewrite Hf. clear - Hv H9 Hp. nia.
Qed.

Lemma secfrac_value_digits ds :
  ds <> [] -> forallb is_digit ds = true -> secfrac_value ds = TmOk (fracval 0 ds).
Proof.
  intros Hne Hd. unfold secfrac_value. change (length DT_SCALE - 1)%nat with 9%nat.
  set (repr := if Nat.ltb 9 (length ds) then firstn 9 ds else ds).
  assert (Hr : repr = firstn 9 ds).
  { unfold repr. destruct (Nat.ltb 9 (length ds)) eqn:E; [reflexivity|].
    apply Nat.ltb_ge in E. symmetry. apply firstn_all2. exact E. }
  assert (Hl : (1 <= length repr <= 9)%nat).
  { rewrite Hr, firstn_length. destruct ds; [congruence|]. cbn [length]. lia. }
  assert (Hf : fracval 0 repr = fracval 0 ds).
  { rewrite Hr. symmetry. apply (fracval_firstn ds 0). }
  assert (Hdr : forallb is_digit repr = true) by (rewrite Hr; apply forallb_firstn; exact Hd).
  destruct (secfrac_short repr Hl Hdr) as (Hp & sc & Hs & Hm & Hb).
  rewrite Hp, Hs, Hm, pow2_32, Hf in *.
  destruct (_ <? _)%N eqn:E; [reflexivity | lia].
Qed.
(* coarse view of grammar results *)
Definition okr {A} (x : res A) (a : A) (r : bytes) : Prop := exists p d, x = Ok a (mkIn r p d).
Definition soft {A} (x : res A) : Prop := exists e i, x = Bt e i.
Definition hard {A} (x : res A) : Prop := exists e i, x = Cut e i.

Lemma okr_intro {A} (a : A) r p d : okr (Ok a (mkIn r p d)) a r.
Proof. exists p, d. reflexivity. Qed.
Lemma soft_intro {A} e i : soft (@Bt A e i).
Proof. exists e, i. reflexivity. Qed.
Lemma hard_intro {A} e i : hard (@Cut A e i).
Proof. exists e, i. reflexivity. Qed.
#[local] Hint Resolve okr_intro soft_intro hard_intro : core.

Definition std_frac : sp N :=
  fun s => match s with
           | b :: r =>
             if byte_eqb b dot
             then (let '(acc, n, q) := frac_loop 0 0%N r in
                   if Nat.eqb n 0 then None else Some (acc, q))
             else Some (0%N, s)
           | [] => Some (0%N, s)
           end.

Lemma std_frac_spec s :
  std_frac s =
  match s with
  | b :: r =>
    if byte_eqb b dot
    then match fst (span_while is_digit r) with
         | [] => None
         | ds => Some (fracval 0 ds, snd (span_while is_digit r))
         end
    else Some (0%N, s)
  | [] => Some (0%N, s)
  end.
Proof.
  unfold std_frac. destruct s as [|b r]; [reflexivity|]. destruct (byte_eqb b dot); [|reflexivity].
  rewrite frac_loop_span. destruct (fst (span_while is_digit r)) as [|x ds]; reflexivity.
Qed.

Lemma opt_secfrac s p d :
  opt time_secfrac (mkIn s p d) =
  match s with
  | b :: r =>
    if byte_eqb b dot
    then match fst (span_while is_digit r) with
         | [] => Ok None (mkIn s p d)
         | ds => Ok (Some (fracval 0 ds))
                    (mkIn (snd (span_while is_digit r)) (p + 1 + N.of_nat (length ds))%N d)
         end
    else Ok None (mkIn s p d)
  | [] => Ok None (mkIn s p d)
  end.
Proof.
  unfold opt, time_secfrac, try_map, preceded. rewrite bind_byte. unfold sexpect.
  destruct s as [|b r]; [reflexivity|]. destruct (byte_eqb b dot); [|reflexivity].
  unfold unsigned_digits, unchecked_utf8, take_while_mn. cbn [rest].
  rewrite (span_while_ext _ is_digit r in_class_digit).
  pose proof (span_while_all is_digit r) as Hall. pose proof (skipn_span is_digit r) as Hskip.
  destruct (fst (span_while is_digit r)) as [|x ds] eqn:E; [reflexivity|].
  change (Nat.ltb (length (x :: ds)) 1) with false. cbv iota.
  rewrite (utf8_valid_digits _ Hall). assert (Hne : x :: ds <> []) by discriminate.
  rewrite (secfrac_value_digits _ Hne Hall).
  unfold advance. cbn [rest pos depth]. rewrite Hskip. reflexivity.
Qed.
(* the time stage *)
Definition time8 : sp (N * N * N) :=
  sbind two (fun h => sbind (sexpect colon) (fun _ =>
  sbind two (fun mi => sbind (sexpect colon) (fun _ =>
  sbind two (fun sec => sret (h, mi, sec)))))).

Ltac std_ranges := repeat (destruct (_ <? _)%N; try reflexivity).

Lemma std_time_nf s :
  std_time s =
  match time8 s with
  | None => None
  | Some ((h, mi, sec), r) =>
    match std_frac r with
    | None => None
    | Some (ns, q) =>
      if (23 <? h)%N then None else if (59 <? mi)%N then None else if (60 <? sec)%N then None
      else if (999999999 <? ns)%N then None else Some (mkTime h mi sec ns, q)
    end
  end.
Proof.
  unfold std_time, time8, sbind.
  destruct (two s) as [[h r1]|]; [|reflexivity].
  destruct (sexpect colon r1) as [[[] r2]|]; [|reflexivity].
  destruct (two r2) as [[mi r3]|]; [|reflexivity].
  destruct (sexpect colon r3) as [[[] r4]|]; [|reflexivity].
  destruct (two r4) as [[sec r5]|]; [|reflexivity].
  unfold sret, speek, std_frac, snext, sfail, SD_HOUR_MAX, SD_MINUTE_MAX, SD_SECOND_MAX, SD_NANO_MAX.
  destruct r5 as [|b r6]; [std_ranges|].
  destruct (byte_eqb b dot); [|std_ranges]. cbn [tl].
  destruct (frac_loop 0 0%N r6) as [[acc n] q]. destruct (Nat.eqb n 0); [reflexivity|std_ranges].
Qed.

Definition finish_time (h mi sec : N) (x : res (option N)) : res time :=
  match x with
  | Ok ns i => Ok (mkTime h mi sec (match ns with Some n => n | None => 0%N end)) i
  | Bt e i => Cut e i
  | Cut e i => Cut e i
  | Panic st => Panic st
  end.

Lemma rng_hi lo hi v : lo = 0%N -> ((lo <=? v)%N && (v <=? hi)%N) = negb (hi <? v)%N.
Proof. intros ->. lia. Qed.

Ltac tail8 :=
  repeat first [ destruct (sexpect colon _) as [[[] ?]|] | destruct (two _) as [[? ?]|] ];
  unfold sret; cbv beta iota;
  repeat match goal with H : (_ <? _)%N = _ |- _ => rewrite H end; cbn [orb];
  first [apply soft_intro | apply hard_intro | left; apply soft_intro | right; apply hard_intro].

Lemma partial_time_nf s p d :
  match time8 s with
  | None => soft (partial_time (mkIn s p d)) \/ hard (partial_time (mkIn s p d))
  | Some ((h, mi, sec), r) =>
    if (23 <? h)%N then soft (partial_time (mkIn s p d))
    else if (59 <? mi)%N || (60 <? sec)%N then hard (partial_time (mkIn s p d))
    else partial_time (mkIn s p d)
         = finish_time h mi sec (opt time_secfrac (mkIn r (p + 2 + 1 + 2 + 1 + 2)%N d))
  end.
Proof.
  unfold partial_time, time_hour, time_minute, time_second. rewrite bind_two.
  unfold time8, sbind.
  destruct (two s) as [[h r1]|]; [|left; apply soft_intro].
  rewrite (rng_hi DT_HOUR_MIN DT_HOUR_MAX h eq_refl). change DT_HOUR_MAX with 23%N.
  destruct (23 <? h)%N eqn:Hh; cbn [negb].
  { tail8. }
  rewrite bind_byte.
  destruct (sexpect colon r1) as [[[] r2]|]; [|left; apply soft_intro].
  unfold cut_err. rewrite bind_two.
  destruct (two r2) as [[mi r3]|]; [|right; apply hard_intro].
  rewrite (rng_hi DT_MINUTE_MIN DT_MINUTE_MAX mi eq_refl). change DT_MINUTE_MAX with 59%N.
  destruct (59 <? mi)%N eqn:Hmi; cbn [negb].
  { tail8. }
  rewrite bind_byte.
  destruct (sexpect colon r3) as [[[] r4]|]; [|right; apply hard_intro].
  rewrite bind_two.
  destruct (two r4) as [[sec r5]|]; [|right; apply hard_intro].
  rewrite (rng_hi DT_SECOND_MIN DT_SECOND_MAX sec eq_refl). change DT_SECOND_MAX with 60%N.
  unfold sret. rewrite Hh, Hmi. cbn [orb].
  destruct (60 <? sec)%N eqn:Hsec; cbn [negb]; [apply hard_intro|].
  unfold bind, ret, finish_time. destruct (opt time_secfrac _); reflexivity.
Qed.
Lemma fracval_bound l : forallb is_digit l = true -> (fracval 0 l <= 999999999)%N.
Proof.
  intro Hd. destruct l as [|b l]; [cbn [fracval]; lia|].
  rewrite (fracval_firstn (b :: l) 0). change (9 - 0)%nat with 9%nat.
  assert (Hl : (1 <= length (firstn 9 (b :: l)) <= 9)%nat)
    by (rewrite firstn_length; cbn [length]; lia).
  destruct (secfrac_short _ Hl (forallb_firstn _ 9 _ Hd)) as (_ & sc & _ & _ & Hb). exact Hb.
Qed.

(* The two time parsers agree, except that after `hh:mm:ss` followed by a dot that no digit
   follows the standalone parser fails while the grammar stops in front of the dot. *)
Lemma time_stage s p d :
  match std_time s with
  | Some (t, r) => okr (partial_time (mkIn s p d)) t r
  | None => soft (partial_time (mkIn s p d)) \/ hard (partial_time (mkIn s p d)) \/
            exists t r, okr (partial_time (mkIn s p d)) t (dot :: r)
  end.
Proof.
  rewrite std_time_nf. pose proof (partial_time_nf s p d) as H.
  destruct (time8 s) as [[[[h mi] sec] r]|]; [|tauto].
  destruct (23 <? h)%N; [destruct (std_frac r) as [[ns q]|]; auto|].
  destruct (59 <? mi)%N; cbn [orb] in H; [destruct (std_frac r) as [[ns q]|]; auto|].
  destruct (60 <? sec)%N; [destruct (std_frac r) as [[ns q]|]; auto|].
  rewrite std_frac_spec. rewrite opt_secfrac in H.
  destruct r as [|b r'].
  - change (999999999 <? 0)%N with false. cbv iota. rewrite H. apply okr_intro.
  - destruct (byte_eqb b dot) eqn:Eb.
    + pose proof (span_while_all is_digit r') as Hall.
      destruct (fst (span_while is_digit r')) as [|x ds].
      * right; right. apply byte_eqb_eq in Eb. subst b. rewrite H. eexists _, r'. apply okr_intro.
      * apply fracval_bound in Hall.
        destruct (999999999 <? fracval 0 (x :: ds))%N eqn:E; [lia|].
        rewrite H. apply okr_intro.
    + change (999999999 <? 0)%N with false. cbv iota. rewrite H. apply okr_intro.
Qed.
(* the date stage *)
Lemma bind_four {B} (k : N -> parser B) s p d :
  bind date_fullyear k (mkIn s p d) =
  match four s with
  | Some (v, r) => k v (mkIn r (p + 4)%N d)
  | None => Bt err0 (mkIn s p d)
  end.
Proof. unfold bind. rewrite date_fullyear_four. destruct (four s) as [[v r]|]; reflexivity. Qed.

Lemma bind_cut_two {B} lo hi (k : N -> parser B) s p d :
  bind (cut_err (two_digit_field lo hi)) k (mkIn s p d) =
  match two s with
  | Some (v, r) => if (lo <=? v)%N && (v <=? hi)%N then k v (mkIn r (p + 2)%N d)
                   else Cut (err_of OutOfRange) (mkIn s p d)
  | None => Cut err0 (mkIn s p d)
  end.
Proof.
  unfold bind, cut_err. rewrite two_digit_field_two.
  destruct (two s) as [[v r]|]; [|reflexivity]. destruct (_ && _); reflexivity.
Qed.

Lemma bind_cut_byte {B} c (k : parser B) s p d :
  bind (cut_err (byte_ c)) (fun _ => k) (mkIn s p d) =
  match sexpect c s with
  | Some (_, r) => k (mkIn r (p + 1)%N d)
  | None => Cut err0 (mkIn s p d)
  end.
Proof.
  unfold bind, cut_err, byte_, one_of, sexpect. cbn [rest].
  destruct s as [|b r]; [reflexivity|]. rewrite (byte_eqb_sym c b).
  destruct (byte_eqb b c); reflexivity.
Qed.

Definition date10 : sp (N * N * N) :=
  sbind four (fun y => sbind (sexpect dash) (fun _ =>
  sbind two (fun m => sbind (sexpect dash) (fun _ =>
  sbind two (fun d => sret (y, m, d)))))).

Lemma std_date_nf s :
  std_date s =
  match date10 s with
  | None => None
  | Some ((y, m, d), r) =>
    if (m <? 1)%N || (12 <? m)%N then None
    else if (d <? 1)%N || (max_days SD_MAXDAYS m (is_leap_year y) <? d)%N then None
    else Some (mkDate y m d, r)
  end.
Proof.
  unfold std_date, date10, four, sbind.
  destruct (sdigit s) as [[y1 r1]|]; [|reflexivity].
  destruct (sdigit r1) as [[y2 r2]|]; [|reflexivity].
  destruct (sdigit r2) as [[y3 r3]|]; [|reflexivity].
  destruct (sdigit r3) as [[y4 r4]|]; [|reflexivity].
  change (sret (y1 * 1000 + y2 * 100 + y3 * 10 + y4)%N r4) with (Some ((y1 * 1000 + y2 * 100 + y3 * 10 + y4)%N, r4)). cbv iota.
  destruct (sexpect dash r4) as [[[] r5]|]; [|reflexivity].
  destruct (two r5) as [[m r6]|]; [|reflexivity].
  destruct (sexpect dash r6) as [[[] r7]|]; [|reflexivity].
  destruct (two r7) as [[d r8]|]; [|reflexivity].
  unfold sret, sfail, SD_MONTH_MIN, SD_MONTH_MAX, SD_DAY_MIN.
  destruct (_ || _); [reflexivity|]. destruct (_ || _); reflexivity.
Qed.

Lemma rng_lohi lo hi v : ((lo <=? v)%N && (v <=? hi)%N) = negb ((v <? lo)%N || (hi <? v)%N).
Proof. lia. Qed.

Lemma full_date_nf s p d0 :
  match date10 s with
  | None => soft (full_date (mkIn s p d0)) \/ hard (full_date (mkIn s p d0))
  | Some ((y, m, d), r) =>
    if (m <? 1)%N || (12 <? m)%N then hard (full_date (mkIn s p d0))
    else if (d <? 1)%N || (31 <? d)%N then hard (full_date (mkIn s p d0))
    else if (max_days DT_MAXDAYS m (is_leap_year y) <? d)%N then hard (full_date (mkIn s p d0))
    else full_date (mkIn s p d0) = Ok (mkDate y m d) (mkIn r (p + 4 + 1 + 2 + 1 + 2)%N d0)
  end.
Proof.
  unfold full_date, date_month, date_mday. rewrite bind_four.
  unfold date10. unfold sbind at 1.
  destruct (four s) as [[y r1]|]; [|left; apply soft_intro].
  unfold sbind. rewrite bind_byte.
  destruct (sexpect dash r1) as [[[] r2]|]; [|left; apply soft_intro].
  rewrite bind_cut_two.
  destruct (two r2) as [[m r3]|]; [|right; apply hard_intro].
  rewrite rng_lohi. change DT_MONTH_MIN with 1%N. change DT_MONTH_MAX with 12%N.
  destruct ((m <? 1)%N || (12 <? m)%N) eqn:Hm; cbn [negb].
  { repeat first [ destruct (sexpect dash _) as [[[] ?]|] | destruct (two _) as [[? ?]|] ];
    unfold sret; cbv beta iota; rewrite ?Hm;
    first [apply soft_intro | apply hard_intro | left; apply soft_intro | right; apply hard_intro]. }
  rewrite bind_cut_byte.
  destruct (sexpect dash r3) as [[[] r4]|]; [|right; apply hard_intro].
  rewrite bind_cut_two.
  destruct (two r4) as [[d r5]|]; [|right; apply hard_intro].
  rewrite rng_lohi. change DT_MDAY_MIN with 1%N. change DT_MDAY_MAX with 31%N.
  unfold sret. rewrite Hm.
  destruct ((d <? 1)%N || (31 <? d)%N) eqn:Hd; cbn [negb]; [apply hard_intro|].
  destruct (max_days DT_MAXDAYS m (is_leap_year y) <? d)%N; [apply hard_intro|].
  reflexivity.
Qed.

Lemma max_days_le m l : (max_days DT_MAXDAYS m l <= 31)%N.
Proof.
  unfold DT_MAXDAYS. cbn [max_days].
  repeat match goal with |- context [if ?c then _ else _] => destruct c end; lia.
Qed.

Lemma date_stage s p d0 :
  match std_date s with
  | Some (dt, r) => okr (full_date (mkIn s p d0)) dt r
  | None => soft (full_date (mkIn s p d0)) \/ hard (full_date (mkIn s p d0))
  end.
Proof.
  rewrite std_date_nf. pose proof (full_date_nf s p d0) as H.
  destruct (date10 s) as [[[[y m] d] r]|]; [|assumption].
  destruct ((m <? 1)%N || (12 <? m)%N); [auto|].
  change SD_MAXDAYS with DT_MAXDAYS.
  pose proof (max_days_le m (is_leap_year y)) as Hle.
  destruct (d <? 1)%N eqn:E1; cbn [orb] in *; [auto|].
  destruct (31 <? d)%N eqn:E2.
  - destruct (max_days DT_MAXDAYS m (is_leap_year y) <? d)%N eqn:E3; [auto|lia].
  - destruct (max_days DT_MAXDAYS m (is_leap_year y) <? d)%N eqn:E3; [auto|].
    rewrite H. apply okr_intro.
Qed.
(* the offset stage *)
Definition signed_hm : parser Z :=
  bind (one_of (fun b => byte_eqb b plus || byte_eqb b dash)) (fun sign =>
  bind (cut_err (bind time_hour (fun h => bind (byte_ colon) (fun _ =>
                 bind time_minute (fun mi => ret (h, mi))))))
       (fun x => match x with
                 | (h, mi) =>
                   if byte_eqb sign plus then ret (Z.of_N (h * 60 + mi))
                   else if byte_eqb sign dash then ret (- Z.of_N (h * 60 + mi))%Z
                   else (fun _ => Panic P_unreachable_sign)
                 end)).

Lemma time_offset_eq :
  time_offset =
  context (alt (pvalue OffZ (one_of (fun b => byte_eqb b x5a || byte_eqb b x7a)))
               (pmap OffCustom
                  (verify (fun mins => (DT_OFFSET_MIN <=? mins)%Z && (mins <=? DT_OFFSET_MAX)%Z)
                          signed_hm))).
Proof. reflexivity. Qed.

Definition hm5 : sp (N * N) :=
  sbind two (fun h => sbind (sexpect colon) (fun _ => sbind two (fun mi => sret (h, mi)))).

Definition sign_of (b : byte) : option Z :=
  if byte_eqb b plus then Some 1%Z else if byte_eqb b dash then Some (-1)%Z else None.

Lemma bind_one_of {B} f (k : byte -> parser B) b r p d :
  bind (one_of f) k (mkIn (b :: r) p d) =
  if f b then k b (mkIn r (p + 1)%N d) else Bt err0 (mkIn (b :: r) p d).
Proof. unfold bind, one_of. cbn [rest]. destruct (f b); reflexivity. Qed.

(* `hh:mm` under cut_err, as the offset reads it: every failure is a Cut *)
Lemma hm_cut_nf {B} (k : N * N -> parser B) r p d Y :
  Y = bind (cut_err (bind time_hour (fun h => bind (byte_ colon) (fun _ =>
              bind time_minute (fun mi => ret (h, mi)))))) k (mkIn r p d) ->
  match hm5 r with
  | None => hard Y
  | Some ((h, mi), q) =>
    if (23 <? h)%N || (59 <? mi)%N then hard Y
    else Y = k (h, mi) (mkIn q (p + 2 + 1 + 2)%N d)
  end.
Proof.
  intro HY. unfold bind at 1 in HY. unfold cut_err, time_hour, time_minute in HY.
  rewrite bind_two in HY. unfold hm5, sbind.
  destruct (two r) as [[h r1]|]; [|subst Y; apply hard_intro].
  rewrite (rng_hi DT_HOUR_MIN DT_HOUR_MAX h eq_refl) in HY. change DT_HOUR_MAX with 23%N in HY.
  destruct (23 <? h)%N eqn:Hh; cbn [negb] in HY.
  { subst Y. destruct (sexpect colon r1) as [[[] r2]|]; [|apply hard_intro].
    destruct (two r2) as [[mi r3]|]; [|apply hard_intro].
    unfold sret. rewrite Hh. apply hard_intro. }
  rewrite bind_byte in HY.
  destruct (sexpect colon r1) as [[[] r2]|]; [|subst Y; apply hard_intro].
  rewrite bind_two in HY.
  destruct (two r2) as [[mi r3]|]; [|subst Y; apply hard_intro].
  rewrite (rng_hi DT_MINUTE_MIN DT_MINUTE_MAX mi eq_refl) in HY. change DT_MINUTE_MAX with 59%N in HY.
  unfold sret. rewrite Hh. cbn [orb].
  destruct (59 <? mi)%N eqn:Hmi; cbn [negb] in HY; [subst Y; apply hard_intro|].
  exact HY.
Qed.

Lemma signed_hm_spec b r p d X :
  X = signed_hm (mkIn (b :: r) p d) ->
  match sign_of b with
  | None => soft X
  | Some sg =>
    match hm5 r with
    | None => hard X
    | Some ((h, mi), q) =>
      if (23 <? h)%N || (59 <? mi)%N then hard X
      else X = Ok (sg * Z.of_N (h * 60 + mi))%Z (mkIn q (p + 1 + 2 + 1 + 2)%N d)
    end
  end.
Proof.
  intro HX. unfold signed_hm in HX. rewrite bind_one_of in HX. unfold sign_of.
  destruct (byte_eqb b plus); cbn [orb] in HX;
    [|destruct (byte_eqb b dash); [|subst X; apply soft_intro]].
  (* both signs go the same way *)
  all: apply hm_cut_nf in HX; destruct (hm5 r) as [[[h mi] q]|]; [|exact HX].
  all: destruct (_ || _); [exact HX|]; rewrite HX; unfold ret; f_equal; lia.
Qed.

Lemma std_offset_nf b r :
  std_offset (b :: r) =
  if byte_eqb b x5a || byte_eqb b x7a then Some (Some OffZ, r)
  else match sign_of b with
       | None => None
       | Some sg =>
         match hm5 r with
         | None => None
         | Some ((h, mi), q) =>
           if (23 <? h)%N || (59 <? mi)%N then None
           else if (-1440 <=? sg * Z.of_N (h * 60 + mi))%Z && (sg * Z.of_N (h * 60 + mi) <=? 1440)%Z
                then Some (Some (OffCustom (sg * Z.of_N (h * 60 + mi))%Z), q) else None
         end
       end.
Proof.
  unfold std_offset, sbind, speek. cbv beta iota.
  destruct (_ || _); [reflexivity|].
  unfold sign_of, hm5, sbind.
  (* both signs go the same way *)
  destruct (byte_eqb b plus); [|destruct (byte_eqb b dash); [|reflexivity]].
  all: unfold sret at 1, snext; cbn [tl].
  all: destruct (two r) as [[h r1]|]; [|reflexivity].
  all: destruct (sexpect colon r1) as [[[] r2]|]; [|reflexivity].
  all: destruct (two r2) as [[mi r3]|]; [|reflexivity].
  all: unfold sret, sfail, SD_OFFSET_HOUR_MAX, SD_OFFSET_MINUTE_MAX, SD_OFFSET_MIN, SD_OFFSET_MAX.
  all: destruct (_ || _); [reflexivity|]; destruct (_ && _); reflexivity.
Qed.

Lemma offset_stage s p d X :
  X = opt time_offset (mkIn s p d) ->
  match std_offset s with
  | Some (o, r) => okr X o r
  | None => hard X \/ (s <> [] /\ okr X None s)
  end.
Proof.
  intro HX. rewrite time_offset_eq in HX. destruct s as [|b r].
  - subst X. apply okr_intro.
  - rewrite std_offset_nf. unfold opt, context, alt, pvalue, pmap, verify in HX.
    unfold one_of in HX. cbn [rest] in HX.
    destruct (byte_eqb b x5a || byte_eqb b x7a).
    + subst X. unfold advance. cbn [skipn rest pos depth]. apply okr_intro.
    + pose proof (signed_hm_spec b r p d _ eq_refl) as HS.
      destruct (sign_of b) as [sg|].
      2:{ destruct HS as (e & i & HS). rewrite HS in HX. subst X.
          right. split; [discriminate|apply okr_intro]. }
      destruct (hm5 r) as [[[h mi] q]|].
      2:{ destruct HS as (e & i & HS). rewrite HS in HX. subst X. left. apply hard_intro. }
      destruct (_ || _).
      { destruct HS as (e & i & HS). rewrite HS in HX. subst X. left. apply hard_intro. }
      rewrite HS in HX. change DT_OFFSET_MIN with (-1440)%Z in HX. change DT_OFFSET_MAX with 1440%Z in HX.
      destruct (_ && _); subst X; [apply okr_intro|].
      right. split; [discriminate|apply okr_intro].
Qed.
(* putting the stages together *)
Definition fin (x : res datetime) : option datetime :=
  match x with
  | Ok d i => match rest i with [] => Some d | _ => None end
  | _ => None
  end.

Lemma doc_datetime_fin a r :
  doc_datetime (a :: r) =
  if in_class VALUE_NUMBER_START a then fin (date_time (new_input (a :: r))) else None.
Proof. reflexivity. Qed.

Definition time_only_dt (t : time) : datetime := mkDT None (Some t) None.

Lemma date_time_soft i :
  soft (full_date i) -> date_time i = context (pmap time_only_dt partial_time) i.
Proof. intros (e & i' & H). unfold date_time, alt, context, bind. rewrite H. reflexivity. Qed.

Lemma date_time_hard i : hard (full_date i) -> hard (date_time i).
Proof. intros (e & i' & H). unfold date_time, alt, context, bind. rewrite H. apply hard_intro. Qed.

Definition after_date : parser (option (time * option offset)) :=
  opt (bind time_delim (fun _ => bind partial_time (fun t =>
       bind (opt time_offset) (fun off => ret (t, off))))).

Definition mk_after (dt : date) (o : option (time * option offset)) : datetime :=
  match o with
  | Some (t, off) => mkDT (Some dt) (Some t) off
  | None => mkDT (Some dt) None None
  end.

Lemma date_time_ok i dt i1 o i2 :
  full_date i = Ok dt i1 -> after_date i1 = Ok o i2 -> date_time i = Ok (mk_after dt o) i2.
Proof.
  intros H1 H2. unfold date_time, alt, context. unfold bind at 1. rewrite H1.
  unfold bind at 1. fold after_date. rewrite H2. reflexivity.
Qed.

Lemma date_time_ok_hard i dt i1 :
  full_date i = Ok dt i1 -> hard (after_date i1) -> hard (date_time i).
Proof.
  intros H1 (e & i' & H2). unfold date_time, alt, context. unfold bind at 1. rewrite H1.
  unfold bind at 1. fold after_date. rewrite H2. apply hard_intro.
Qed.

(* what the standalone parser does after the date *)
Definition std_tail (dt : date) : sp datetime :=
  sbind speek (fun nx =>
    match nx with
    | Some b =>
      if byte_eqb b x54 || byte_eqb b x74 || byte_eqb b x20
      then sbind snext (fun _ => sbind std_time (fun t => sbind std_offset (fun off =>
             sret (mkDT (Some dt) (Some t) off))))
      else sret (mkDT (Some dt) None None)
    | None => sret (mkDT (Some dt) None None)
    end).

Lemma after_date_stage dt r1 p1 d1 X :
  X = after_date (mkIn r1 p1 d1) ->
  match std_tail dt r1 with
  | Some (v, q) => exists o, okr X o q /\ v = mk_after dt o
  | None => hard X \/ exists o q, q <> [] /\ okr X o q
  end.
Proof.
  intro HX. unfold std_tail, sbind, speek. destruct r1 as [|b r2].
  - subst X. exists None. split; [apply okr_intro|reflexivity].
  - cbv beta iota. unfold after_date in HX. unfold opt at 1 in HX. unfold time_delim in HX. rewrite bind_one_of in HX.
    rewrite in_class_delim in HX.
    destruct (byte_eqb b x54 || byte_eqb b x74 || byte_eqb b x20).
    2:{ subst X. exists None. split; [apply okr_intro|reflexivity]. }
    unfold snext. cbn [tl]. unfold bind at 1 in HX.
    pose proof (time_stage r2 (p1 + 1)%N d1) as HT.
    destruct (std_time r2) as [[t r3]|].
    + destruct HT as (p3 & d3 & ET). rewrite ET in HX. unfold bind, ret in HX.
      pose proof (offset_stage r3 p3 d3 _ eq_refl) as HO.
      destruct (std_offset r3) as [[o r4]|].
      * destruct HO as (p4 & d4 & EO). rewrite EO in HX. subst X.
        exists (Some (t, o)). split; [apply okr_intro|reflexivity].
      * destruct HO as [(e & i' & EO)|(Hne & p4 & d4 & EO)]; rewrite EO in HX; subst X.
        -- left. apply hard_intro.
        -- right. exists (Some (t, None)), r3. split; [exact Hne|apply okr_intro].
    + destruct HT as [(e & i' & ET)|[(e & i' & ET)|(t & q & p3 & d3 & ET)]]; rewrite ET in HX.
      * subst X. right. exists None, (b :: r2). split; [discriminate|apply okr_intro].
      * subst X. left. apply hard_intro.
      * unfold bind, ret in HX.
        pose proof (offset_stage (dot :: q) p3 d3 _ eq_refl) as HO.
        change (std_offset (dot :: q)) with (@None (option offset * bytes)) in HO.
        destruct HO as [(e & i' & EO)|(Hne & p4 & d4 & EO)]; rewrite EO in HX; subst X.
        -- left. apply hard_intro.
        -- right. exists (Some (t, None)), (dot :: q). split; [exact Hne|apply okr_intro].
Qed.
Lemma four_third a b c r : is_digit c = false -> four (a :: b :: c :: r) = None.
Proof.
  intro H. unfold four, sbind, sdigit. destruct (is_digit a); [|reflexivity].
  destruct (is_digit b); [|reflexivity]. rewrite H. reflexivity.
Qed.

Lemma four_short s : (length s < 3)%nat -> four s = None.
Proof.
  intro H. unfold four, sbind, sdigit.
  destruct s as [|a [|b [|c r]]]; [| | |cbn [length] in H; lia];
    repeat match goal with |- context [is_digit ?x] => destruct (is_digit x) end; reflexivity.
Qed.

Lemma full_date_soft s p d : four s = None -> soft (full_date (mkIn s p d)).
Proof. intro H. unfold full_date. rewrite bind_four, H. apply soft_intro. Qed.

Lemma partial_time_soft s p d :
  (forall a b c r, s = a :: b :: c :: r -> byte_eqb c colon = false) ->
  soft (partial_time (mkIn s p d)).
Proof.
  intro H. unfold partial_time, time_hour. rewrite bind_two. unfold two, sbind, sdigit, sret.
  destruct s as [|a [|b [|c r]]].
  - apply soft_intro.
  - destruct (is_digit a); apply soft_intro.
  - destruct (is_digit a); [|apply soft_intro]. destruct (is_digit b); [|apply soft_intro].
    destruct (_ && _); [|apply soft_intro]. rewrite bind_byte. apply soft_intro.
  - destruct (is_digit a); [|apply soft_intro]. destruct (is_digit b); [|apply soft_intro].
    destruct (_ && _); [|apply soft_intro]. rewrite bind_byte. unfold sexpect.
    rewrite (H _ _ _ _ eq_refl). apply soft_intro.
Qed.

Lemma std_date_digit a r x : std_date (a :: r) = Some x -> is_digit a = true.
Proof.
  unfold std_date. unfold sbind at 1. unfold sdigit at 1.
  destruct (is_digit a); [reflexivity|discriminate].
Qed.

Lemma std_time_digit a r x : std_time (a :: r) = Some x -> is_digit a = true.
Proof.
  unfold std_time. unfold sbind at 1. unfold two. unfold sbind at 1. unfold sdigit at 1.
  destruct (is_digit a); [reflexivity|discriminate].
Qed.

Lemma doc_short s : (length s < 3)%nat -> doc_datetime s = None.
Proof.
  intro H. destruct s as [|a r]; [reflexivity|]. rewrite doc_datetime_fin.
  destruct (in_class _ a); [|reflexivity]. unfold new_input.
  rewrite date_time_soft by (apply full_date_soft, four_short, H).
  destruct (partial_time_soft (a :: r) 0%N 0) as (e & i & E).
  { intros a' b c r' Heq. injection Heq as _ ->. cbn [length] in H. lia. }
  unfold context, pmap. rewrite E. reflexivity.
Qed.

Lemma std_short s : (length s < 3)%nat -> std_from_str s = None.
Proof.
  intro H. unfold std_from_str. change SD_MIN_LEN with 3%nat.
  apply Nat.ltb_lt in H. rewrite H. reflexivity.
Qed.

Lemma std_from_str_3 a b c r :
  std_from_str (a :: b :: c :: r) =
  if byte_eqb c colon
  then match std_time (a :: b :: c :: r) with
       | Some (t, []) => Some (time_only_dt t)
       | _ => None
       end
  else match std_date (a :: b :: c :: r) with
       | Some (dt, r1) => match std_tail dt r1 with Some (v, []) => Some v | _ => None end
       | None => None
       end.
Proof.
  unfold std_from_str.
  change (Nat.ltb (length (a :: b :: c :: r)) SD_MIN_LEN) with false. cbv iota zeta.
  cbn [nth_error]. destruct (byte_eqb c colon).
  - unfold sbind. destruct (std_time _) as [[t [|]]|]; reflexivity.
  - unfold sbind at 1. destruct (std_date _) as [[dt r1]|]; reflexivity.
Qed.

Theorem agree s : std_from_str s = doc_datetime s.
Proof.
  destruct (Nat.ltb (length s) 3) eqn:Hlen.
  { apply Nat.ltb_lt in Hlen. rewrite std_short, doc_short by exact Hlen. reflexivity. }
  destruct s as [|a [|b [|c r]]]; try discriminate Hlen. clear Hlen.
  rewrite std_from_str_3, doc_datetime_fin. unfold new_input.
  set (s := a :: b :: c :: r).
  destruct (byte_eqb c colon) eqn:Ec.
  - assert (Hs : soft (full_date (mkIn s 0%N 0))).
    { apply full_date_soft, four_third. apply byte_eqb_eq in Ec. subst c. reflexivity. }
    rewrite (date_time_soft _ Hs). pose proof (time_stage s 0%N 0) as HT.
    destruct (std_time s) as [[t q]|] eqn:Est.
    + rewrite (digit_number_start a (std_time_digit _ _ _ Est)).
      destruct HT as (p' & d' & E). unfold context, pmap. rewrite E. cbn [fin rest].
      destruct q; reflexivity.
    + destruct (in_class _ a); [|reflexivity].
      destruct HT as [(e & i & E)|[(e & i & E)|(t & q & p' & d' & E)]];
        unfold context, pmap; rewrite E; reflexivity.
  - pose proof (date_stage s 0%N 0) as HD.
    destruct (std_date s) as [[dt r1]|] eqn:Esd.
    + rewrite (digit_number_start a (std_date_digit _ _ _ Esd)).
      destruct HD as (p1 & d1 & E1).
      pose proof (after_date_stage dt r1 p1 d1 _ eq_refl) as HA.
      destruct (std_tail dt r1) as [[v q]|].
      * destruct HA as (o & (p2 & d2 & E2) & ->). rewrite (date_time_ok _ _ _ _ _ E1 E2).
        cbn [fin rest]. destruct q; reflexivity.
      * destruct HA as [Hh|(o & q & Hne & (p2 & d2 & E2))].
        -- destruct (date_time_ok_hard _ _ _ E1 Hh) as (e & i & E). rewrite E. reflexivity.
        -- rewrite (date_time_ok _ _ _ _ _ E1 E2). cbn [fin rest].
           destruct q; [congruence|reflexivity].
    + destruct (in_class _ a); [|reflexivity]. destruct HD as [Hs|Hh].
      * rewrite (date_time_soft _ Hs).
        destruct (partial_time_soft s 0%N 0) as (e & i & E).
        { intros a' b' c' r' Heq. unfold s in Heq. injection Heq as -> -> -> ->. exact Ec. }
        unfold context, pmap. rewrite E. reflexivity.
      * destruct (date_time_hard _ Hh) as (e & i & E). rewrite E. reflexivity.
Qed.
(* closure: whatever the standalone parser accepts is within the RFC 3339 ranges *)
Lemma std_time_ok s t r : std_time s = Some (t, r) -> time_ok t = true.
Proof.
  rewrite std_time_nf. destruct (time8 s) as [[[[h mi] sec] q]|]; [|discriminate].
  destruct (std_frac q) as [[ns q']|]; [|discriminate].
  destruct (23 <? h)%N eqn:E1; [discriminate|]. destruct (59 <? mi)%N eqn:E2; [discriminate|].
  destruct (60 <? sec)%N eqn:E3; [discriminate|]. destruct (999999999 <? ns)%N eqn:E4; [discriminate|].
  intro H. injection H as <- _. unfold time_ok. cbn [hour minute second nanosecond]. lia.
Qed.

Lemma sdigit_bound s v r : sdigit s = Some (v, r) -> (v <= 9)%N.
Proof.
  unfold sdigit. destruct s as [|b q]; [discriminate|]. destruct (is_digit b) eqn:E; [|discriminate].
  intro H. injection H as <- _. apply is_digit_val, E.
Qed.

Lemma four_bound s y r : four s = Some (y, r) -> (y <= 9999)%N.
Proof.
  unfold four, sbind.
  destruct (sdigit s) as [[y1 r1]|] eqn:E1; [|discriminate].
  destruct (sdigit r1) as [[y2 r2]|] eqn:E2; [|discriminate].
  destruct (sdigit r2) as [[y3 r3]|] eqn:E3; [|discriminate].
  destruct (sdigit r3) as [[y4 r4]|] eqn:E4; [|discriminate].
  apply sdigit_bound in E1, E2, E3, E4. unfold sret. intro H. injection H as <- _. lia.
Qed.

Lemma max_days_spec m y :
  (1 <= m <= 12)%N -> max_days SD_MAXDAYS m (is_leap_year y) = days_in_month y m.
Proof.
  intro H.
  assert (Hm : (m = 1 \/ m = 2 \/ m = 3 \/ m = 4 \/ m = 5 \/ m = 6 \/ m = 7 \/ m = 8 \/ m = 9
               \/ m = 10 \/ m = 11 \/ m = 12)%N) by lia.
  repeat (destruct Hm as [Hm|Hm]); subst m; unfold days_in_month, is_leap_year, leap;
    destruct (_ && _); reflexivity.
Qed.

Lemma date10_year s y m d r : date10 s = Some ((y, m, d), r) -> (y <= 9999)%N.
Proof.
  unfold date10. unfold sbind at 1. destruct (four s) as [[y' r1]|] eqn:E; [|discriminate].
  apply four_bound in E. unfold sbind.
  destruct (sexpect dash r1) as [[[] r2]|]; [|discriminate].
  destruct (two r2) as [[m' r3]|]; [|discriminate].
  destruct (sexpect dash r3) as [[[] r4]|]; [|discriminate].
  destruct (two r4) as [[d' r5]|]; [|discriminate].
  unfold sret. intro H. injection H as <- _ _ _. exact E.
Qed.

Lemma std_date_ok s dt r : std_date s = Some (dt, r) -> date_ok dt = true.
Proof.
  rewrite std_date_nf. destruct (date10 s) as [[[[y m] d] q]|] eqn:E10; [|discriminate].
  apply date10_year in E10.
  destruct ((m <? 1)%N || (12 <? m)%N) eqn:E1; [discriminate|].
  destruct ((d <? 1)%N || (max_days SD_MAXDAYS m (is_leap_year y) <? d)%N) eqn:E2; [discriminate|].
  intro H. injection H as <- _. unfold date_ok. cbn [year month day].
  rewrite max_days_spec in E2 by lia. lia.
Qed.

Lemma sign_of_unit b sg : sign_of b = Some sg -> (sg = 1 \/ sg = -1)%Z.
Proof.
  unfold sign_of. destruct (byte_eqb b plus); [intro H; injection H as <-; auto|].
  destruct (byte_eqb b dash); [intro H; injection H as <-; auto|discriminate].
Qed.

Lemma std_offset_ok s o r : std_offset s = Some (Some o, r) -> offset_ok o = true.
Proof.
  destruct s as [|b q]; [discriminate|]. rewrite std_offset_nf.
  destruct (_ || _); [intro H; injection H as <- _; reflexivity|].
  destruct (sign_of b) as [sg|] eqn:Esg; [|discriminate]. apply sign_of_unit in Esg.
  destruct (hm5 q) as [[[h mi] q0]|]; [|discriminate].
  destruct ((23 <? h)%N || (59 <? mi)%N) eqn:E1; [discriminate|].
  destruct (_ && _); [|discriminate]. intro H. injection H as <- _.
  unfold offset_ok. lia.
Qed.

Lemma std_tail_ok dt r1 v q :
  date_ok dt = true -> std_tail dt r1 = Some (v, q) -> in_range v = true.
Proof.
  intros Hd. unfold std_tail, sbind, speek.
  assert (H0 : in_range (mkDT (Some dt) None None) = true) by exact Hd.
  destruct r1 as [|b r2]; [unfold sret; intro H; injection H as <- _; exact H0|].
  destruct (_ || _); [|unfold sret; intro H; injection H as <- _; exact H0].
  unfold snext. cbn [tl].
  destruct (std_time r2) as [[t r3]|] eqn:Et; [|discriminate]. apply std_time_ok in Et.
  destruct (std_offset r3) as [[[o|] r4]|] eqn:Eo; [| |discriminate].
  - apply std_offset_ok in Eo. unfold sret. intro H. injection H as <- _.
    unfold in_range. cbn [d_date d_time d_offset]. rewrite Hd, Et, Eo. reflexivity.
  - unfold sret. intro H. injection H as <- _.
    unfold in_range. cbn [d_date d_time d_offset]. rewrite Hd, Et. reflexivity.
Qed.

Theorem closed s d : std_from_str s = Some d -> in_range d = true.
Proof.
  destruct (Nat.ltb (length s) 3) eqn:Hlen.
  { apply Nat.ltb_lt in Hlen. rewrite std_short by exact Hlen. discriminate. }
  destruct s as [|a [|b [|c r]]]; try discriminate Hlen. clear Hlen.
  rewrite std_from_str_3. destruct (byte_eqb c colon).
  - destruct (std_time _) as [[t [|]]|] eqn:Et; try discriminate.
    apply std_time_ok in Et. intro H. injection H as <-. exact Et.
  - destruct (std_date _) as [[dt r1]|] eqn:Ed; [|discriminate]. apply std_date_ok in Ed.
    destruct (std_tail dt r1) as [[v [|]]|] eqn:Ev; try discriminate.
    intro H. injection H as <-. exact (std_tail_ok _ _ _ _ Ed Ev).
Qed.
(* truncation of the fraction to nine digits *)

Lemma fracval_nine ds :
  length ds = 9%nat -> forallb is_digit ds = true ->
  fracval 0 ds = dec_value ds /\ (dec_value ds <= 999999999)%N.
Proof.
  intros Hl Hd.
  destruct (secfrac_short ds ltac:(lia) Hd) as (_ & sc & Hs & Hm & Hb).
  rewrite Hl in Hs. injection Hs as <-. split; lia.
Qed.

Theorem truncation ds es :
  length ds = 9%nat -> forallb is_digit ds = true -> forallb is_digit es = true ->
  std_from_str ([x30; x30; x3a; x30; x30; x3a; x30; x30; x2e] ++ ds ++ es)
  = Some (mkDT None (Some (mkTime 0 0 0 (dec_value ds))) None).
Proof.
  intros Hl Hd He. cbn [app]. rewrite std_from_str_3.
  change (byte_eqb x3a colon) with true. cbv iota. rewrite std_time_nf.
  change (time8 (x30 :: x30 :: x3a :: x30 :: x30 :: x3a :: x30 :: x30 :: x2e :: ds ++ es))
    with (Some ((0, 0, 0)%N, x2e :: ds ++ es)).
  cbv iota. rewrite std_frac_spec. change (byte_eqb x2e dot) with true. cbv iota.
  rewrite span_while_all_true by (rewrite forallb_app, Hd, He; reflexivity). cbn [fst snd].
  destruct (fracval_nine ds Hl Hd) as [Hf Hb].
  assert (Hv : fracval 0 (ds ++ es) = dec_value ds).
  { rewrite (fracval_firstn (ds ++ es) 0). change (9 - 0)%nat with 9%nat.
    rewrite firstn_app, Hl. change (9 - 9)%nat with 0%nat. rewrite firstn_O.
    rewrite app_nil_r, <- Hl, firstn_all. exact Hf. }
  destruct (ds ++ es) as [|x l] eqn:E.
  { destruct ds; [discriminate Hl|discriminate E]. }
  rewrite Hv.
  change (23 <? 0)%N with false. change (59 <? 0)%N with false. change (60 <? 0)%N with false.
  cbv iota. destruct (999999999 <? dec_value ds)%N eqn:E9; [lia|]. reflexivity.
Qed.
(* printing: zero-padded decimal fields *)
Lemma digit_byte_spec v :
  (v <= 9)%N -> is_digit (digit_byte v) = true /\ digit_val (digit_byte v) = v.
Proof. intro H. split; [apply digit_byte_is_digit|apply digit_byte_digit_val]; lia. Qed.

(* the k low-order decimal digits of n, most significant first *)
Fixpoint digs (k : nat) (n : N) : bytes :=
  match k with
  | O => []
  | S k' => digs k' (n / 10) ++ [digit_byte (n mod 10)]
  end.

Lemma digs_zero k : digs k 0 = repeat x30 k.
Proof.
  induction k as [|k IH]; [reflexivity|]. cbn [digs].
  change (0 / 10)%N with 0%N. change (0 mod 10)%N with 0%N. rewrite IH.
  change (digit_byte 0) with x30. symmetry. apply repeat_cons.
Qed.

Lemma digits_rev_digs k : forall fuel n,
  (1 <= k <= fuel)%nat -> (n < pow10 k)%N ->
  (length (digits_rev fuel n) <= k)%nat /\
  repeat x30 (k - length (digits_rev fuel n)) ++ rev (digits_rev fuel n) = digs k n.
Proof.
  induction k as [|k IH]; intros fuel n Hk Hn; [lia|].
  destruct fuel as [|f]; [lia|]. cbn [digits_rev].
  destruct (n <? 10)%N eqn:E.
  - cbn [length rev app]. split; [lia|]. cbn [digs].
    replace (n / 10)%N with 0%N by lia. replace (n mod 10)%N with n by lia.
    rewrite digs_zero. replace (S k - 1)%nat with k by lia. reflexivity.
  - destruct k as [|k'].
    { cbn [pow10] in Hn. lia. }
    destruct (IH f (n / 10)%N ltac:(lia)) as [Hl Hr].
    { cbn [pow10] in *. lia. }
    cbn [length rev]. split; [lia|]. cbn [digs] in *. rewrite <- Hr.
    replace (S (S k') - S (length (digits_rev f (n / 10))))%nat
      with (S k' - length (digits_rev f (n / 10)))%nat by lia.
    rewrite app_assoc. reflexivity.
Qed.

Lemma pad0_digs k n : (1 <= k <= 40)%nat -> (n < pow10 k)%N -> pad0 k n = digs k n.
Proof.
  intros Hk Hn. unfold pad0, dec_digits. rewrite rev_length.
  apply (digits_rev_digs k 40 n Hk Hn).
Qed.

Lemma digs_digits k : forall n, forallb is_digit (digs k n) = true.
Proof.
  induction k as [|k IH]; intro n; [reflexivity|]. cbn [digs].
  rewrite forallb_app, IH. cbn [forallb].
  destruct (digit_byte_spec (n mod 10)%N ltac:(lia)) as [-> _]. reflexivity.
Qed.

Lemma digs_value k : forall n, (n < pow10 k)%N -> dec_value (digs k n) = n.
Proof.
  unfold dec_value. induction k as [|k IH]; intros n Hn.
  - cbn [pow10] in Hn. cbn [digs dec_value_acc]. lia.
  - cbn [digs]. rewrite dec_value_acc_app. cbn [dec_value_acc]. rewrite IH by (cbn [pow10] in Hn; lia).
    destruct (digit_byte_spec (n mod 10)%N ltac:(lia)) as [_ ->]. lia.
Qed.

Lemma digs_length k : forall n, length (digs k n) = k.
Proof.
  induction k as [|k IH]; intro n; [reflexivity|]. cbn [digs]. rewrite app_length, IH. cbn [length]. lia.
Qed.
Lemma pad0_2_shape n :
  (n < 100)%N -> pad0 2 n = [digit_byte (n / 10 mod 10); digit_byte (n mod 10)].
Proof. intro H. rewrite pad0_digs by (change (pow10 2) with 100%N; lia). reflexivity. Qed.

Lemma pad0_4_shape n :
  (n < 10000)%N ->
  pad0 4 n = [digit_byte (n / 10 / 10 / 10 mod 10); digit_byte (n / 10 / 10 mod 10);
              digit_byte (n / 10 mod 10); digit_byte (n mod 10)].
Proof. intro H. rewrite pad0_digs by (change (pow10 4) with 10000%N; lia). reflexivity. Qed.

Ltac use_digit v :=
  let H1 := fresh in let H2 := fresh in
  destruct (digit_byte_spec v ltac:(lia)) as [H1 H2]; rewrite ?H1, ?H2; clear H1 H2.

Lemma two_pad n r : (n < 100)%N -> two (pad0 2 n ++ r) = Some (n, r).
Proof.
  intro H. rewrite pad0_2_shape by exact H. cbn [app]. unfold two, sbind, sdigit, sret.
  use_digit (n / 10 mod 10)%N. use_digit (n mod 10)%N. f_equal. f_equal. lia.
Qed.

Lemma four_pad n r : (n < 10000)%N -> four (pad0 4 n ++ r) = Some (n, r).
Proof.
  intro H. rewrite pad0_4_shape by exact H. cbn [app]. unfold four, sbind, sdigit, sret.
  use_digit (n / 10 / 10 / 10 mod 10)%N. use_digit (n / 10 / 10 mod 10)%N.
  use_digit (n / 10 mod 10)%N. use_digit (n mod 10)%N. f_equal. f_equal. lia.
Qed.

(* trailing zeros *)
Lemma trim_rev_split l :
  exists z, l = z ++ trim_end_zeros_rev l /\ (forall b, In b z -> b = x30).
Proof.
  induction l as [|b l (z & Hz & Hall)].
  - exists []. split; [reflexivity|]. intros b [].
  - cbn [trim_end_zeros_rev]. destruct (byte_eqb b x30) eqn:E.
    + apply byte_eqb_eq in E. subst b. exists (x30 :: z). split.
      * cbn [app]. f_equal. exact Hz.
      * intros b [Hb|Hb]; [auto|apply Hall, Hb].
    + exists []. split; [reflexivity|]. intros ? [].
Qed.

Lemma trim_split l :
  exists z, l = trim_end_zeros l ++ z /\ (forall b, In b z -> b = x30).
Proof.
  destruct (trim_rev_split (rev l)) as (z & Hz & Hall). exists (rev z). split.
  - unfold trim_end_zeros. rewrite <- rev_app_distr, <- Hz, rev_involutive. reflexivity.
  - intros b Hb. apply Hall, in_rev, Hb.
Qed.

Lemma fracval_zeros z : (forall b, In b z -> b = x30) -> forall i, fracval i z = 0%N.
Proof.
  induction z as [|b z IH]; intros Hall i; [reflexivity|]. cbn [fracval].
  rewrite (Hall b (or_introl eq_refl)). change (digit_val x30) with 0%N.
  rewrite IH by (intros b' Hb'; apply Hall; right; exact Hb'). lia.
Qed.

Lemma fracval_app_zeros t z :
  (forall b, In b z -> b = x30) -> forall i, fracval i (t ++ z) = fracval i t.
Proof.
  intro Hall. induction t as [|b t IH]; intro i.
  - cbn [app fracval]. apply fracval_zeros, Hall.
  - cbn [app fracval]. rewrite IH. reflexivity.
Qed.

Definition stops (rest : bytes) : Prop :=
  match rest with [] => True | b :: _ => is_digit b = false end.

Lemma span_while_stops t rest :
  forallb is_digit t = true -> stops rest -> span_while is_digit (t ++ rest) = (t, rest).
Proof.
  intros Ht Hr. destruct rest as [|b q]; [rewrite app_nil_r; apply span_while_all_true, Ht|].
  apply span_while_app_stop; [exact Ht|exact Hr].
Qed.

Lemma frac_print ns rest :
  (0 < ns <= 999999999)%N -> stops rest ->
  std_frac (dot :: trim_end_zeros (pad0 9 ns) ++ rest) = Some (ns, rest).
Proof.
  intros Hns Hr. rewrite std_frac_spec. change (byte_eqb dot dot) with true. cbv iota.
  assert (Hp : (ns < pow10 9)%N) by (change (pow10 9) with 1000000000%N; lia).
  rewrite pad0_digs by (exact Hp || lia).
  destruct (trim_split (digs 9 ns)) as (z & Hz & Hall).
  set (t := trim_end_zeros (digs 9 ns)) in *.
  pose proof (digs_digits 9 ns) as Hd.
  destruct (fracval_nine (digs 9 ns) (digs_length 9 ns) Hd) as [Hf _].
  rewrite (digs_value 9 ns Hp) in Hf.
  rewrite Hz in Hd, Hf. rewrite forallb_app in Hd. apply andb_true_iff in Hd as [Hdt _].
  rewrite (fracval_app_zeros t z Hall) in Hf.
  rewrite (span_while_stops t rest Hdt Hr). cbn [fst snd].
  destruct t as [|x t']; [cbn [fracval] in Hf; lia|]. rewrite Hf. reflexivity.
Qed.
(* printing then parsing, stage by stage *)
Definition stops2 (rest : bytes) : Prop :=
  match rest with [] => True | b :: _ => is_digit b = false /\ byte_eqb b dot = false end.

Lemma stops2_stops rest : stops2 rest -> stops rest.
Proof. destruct rest as [|b q]; [auto|]. intros [H _]. exact H. Qed.

Lemma sexpect_same c r : sexpect c (c :: r) = Some (tt, r).
Proof. unfold sexpect. rewrite byte_eqb_refl. reflexivity. Qed.

Lemma time_print t rest :
  time_ok t = true -> stops2 rest -> std_time (display_time t ++ rest) = Some (t, rest).
Proof.
  destruct t as [h mi sec ns]. unfold time_ok, display_time. cbn [hour minute second nanosecond].
  intros Hok Hr. rewrite std_time_nf.
  set (F := if (ns =? 0)%N then [] else dot :: trim_end_zeros (pad0 9 ns)).
  assert (H8 : time8 ((pad0 2 h ++ [colon] ++ pad0 2 mi ++ [colon] ++ pad0 2 sec ++ F) ++ rest)
               = Some ((h, mi, sec), F ++ rest)).
  { repeat rewrite <- app_assoc. unfold time8, sbind.
    rewrite two_pad by lia. cbn [app]. rewrite sexpect_same.
    rewrite two_pad by lia. cbn [app]. rewrite sexpect_same.
    rewrite two_pad by lia. reflexivity. }
  rewrite H8.
  assert (HF : std_frac (F ++ rest) = Some (ns, rest)).
  { unfold F. destruct (ns =? 0)%N eqn:E0.
    - apply N.eqb_eq in E0. subst ns. cbn [app]. unfold std_frac.
      destruct rest as [|b q]; [reflexivity|]. destruct Hr as [_ Hr]. rewrite Hr. reflexivity.
    - cbn [app]. apply frac_print; [lia|apply stops2_stops, Hr]. }
  rewrite HF.
  destruct (23 <? h)%N eqn:E1; [lia|]. destruct (59 <? mi)%N eqn:E2; [lia|].
  destruct (60 <? sec)%N eqn:E3; [lia|]. destruct (999999999 <? ns)%N eqn:E4; [lia|]. reflexivity.
Qed.

Lemma days_in_month_le y m : (1 <= m <= 12)%N -> (days_in_month y m <= 31)%N.
Proof.
  intro H. rewrite <- max_days_spec by exact H. change SD_MAXDAYS with DT_MAXDAYS. apply max_days_le.
Qed.

Lemma date_print dt rest :
  date_ok dt = true -> std_date (display_date dt ++ rest) = Some (dt, rest).
Proof.
  destruct dt as [y m d]. unfold date_ok, display_date. cbn [year month day]. intro Hok.
  assert (Hm : (1 <= m <= 12)%N) by lia.
  pose proof (days_in_month_le y m Hm) as Hle.
  rewrite std_date_nf.
  assert (H10 : date10 ((pad0 4 y ++ [dash] ++ pad0 2 m ++ [dash] ++ pad0 2 d) ++ rest)
                = Some ((y, m, d), rest)).
  { repeat rewrite <- app_assoc. unfold date10, sbind.
    rewrite four_pad by lia. cbn [app]. rewrite sexpect_same.
    rewrite two_pad by lia. cbn [app]. rewrite sexpect_same.
    rewrite two_pad by lia. reflexivity. }
  rewrite H10. rewrite max_days_spec by exact Hm.
  destruct ((m <? 1)%N || (12 <? m)%N) eqn:E1; [lia|].
  destruct ((d <? 1)%N || (days_in_month y m <? d)%N) eqn:E2; [lia|]. reflexivity.
Qed.

Lemma offset_print o :
  offset_ok o = true -> std_offset (display_offset o) = Some (Some o, []).
Proof.
  destruct o as [|m]; [reflexivity|]. unfold offset_ok, display_offset. intro Hok.
  set (a := Z.to_N (Z.abs m)). rewrite std_offset_nf.
  assert (Ha : (a <= 1439)%N) by (unfold a; lia).
  assert (H5 : hm5 (pad0 2 (a / 60) ++ [colon] ++ pad0 2 (a mod 60))
               = Some ((a / 60, a mod 60)%N, [])).
  { unfold hm5, sbind. rewrite two_pad by lia. cbn [app]. rewrite sexpect_same.
    rewrite <- (app_nil_r (pad0 2 (a mod 60))). rewrite two_pad by lia. reflexivity. }
  rewrite H5.
  destruct ((23 <? a / 60)%N || (59 <? a mod 60)%N) eqn:E1; [lia|].
  destruct (m <? 0)%Z eqn:Em.
  - change (byte_eqb dash x5a || byte_eqb dash x7a) with false.
    change (sign_of dash) with (Some (-1)%Z). cbv iota.
    assert (Hx : (-1 * Z.of_N (a / 60 * 60 + a mod 60))%Z = m) by (unfold a; lia).
    rewrite Hx. destruct ((-1440 <=? m)%Z && (m <=? 1440)%Z) eqn:E2; [reflexivity|lia].
  - change (byte_eqb plus x5a || byte_eqb plus x7a) with false.
    change (sign_of plus) with (Some 1%Z). cbv iota.
    assert (Hx : (1 * Z.of_N (a / 60 * 60 + a mod 60))%Z = m) by (unfold a; lia).
    rewrite Hx. destruct ((-1440 <=? m)%Z && (m <=? 1440)%Z) eqn:E2; [reflexivity|lia].
Qed.
Lemma std_from_str_nth s c :
  nth_error s 2 = Some c ->
  std_from_str s =
  if byte_eqb c colon
  then match std_time s with Some (t, []) => Some (time_only_dt t) | _ => None end
  else match std_date s with
       | Some (dt, r1) => match std_tail dt r1 with Some (v, []) => Some v | _ => None end
       | None => None
       end.
Proof.
  destruct s as [|a [|b [|c' r]]]; try discriminate. cbn [nth_error]. intro H. injection H as ->.
  apply std_from_str_3.
Qed.

Lemma digit_not_colon v : (v <= 9)%N -> byte_eqb (digit_byte v) colon = false.
Proof.
  intro H. destruct (digit_byte_spec v H) as [Hd _].
  destruct (byte_eqb (digit_byte v) colon) eqn:E; [|reflexivity].
  apply byte_eqb_eq in E. rewrite E in Hd. discriminate Hd.
Qed.

Lemma date_third dt rest :
  date_ok dt = true ->
  exists c, nth_error (display_date dt ++ rest) 2 = Some c /\ byte_eqb c colon = false.
Proof.
  destruct dt as [y m d]. unfold date_ok, display_date. cbn [year month day]. intro Hok.
  rewrite pad0_4_shape by lia. cbn [app nth_error]. eexists. split; [reflexivity|].
  apply digit_not_colon. lia.
Qed.

Lemma time_third t rest :
  time_ok t = true -> nth_error (display_time t ++ rest) 2 = Some colon.
Proof.
  destruct t as [h mi sec ns]. unfold time_ok, display_time. cbn [hour minute second nanosecond].
  intro Hok. rewrite pad0_2_shape by lia. reflexivity.
Qed.

Definition display_off (oo : option offset) : bytes :=
  match oo with Some o => display_offset o | None => [] end.

Lemma offset_print_opt oo :
  (forall o, oo = Some o -> offset_ok o = true) ->
  std_offset (display_off oo) = Some (oo, []) /\ stops2 (display_off oo).
Proof.
  intro H. destruct oo as [o|]; [|split; [reflexivity|exact I]]. split.
  - apply offset_print, H. reflexivity.
  - destruct o as [|m]; [split; reflexivity|]. unfold display_off, display_offset.
    destruct (m <? 0)%Z; split; reflexivity.
Qed.

Lemma tail_print dt t oo :
  time_ok t = true -> (forall o, oo = Some o -> offset_ok o = true) ->
  std_tail dt (x54 :: display_time t ++ display_off oo) = Some (mkDT (Some dt) (Some t) oo, []).
Proof.
  intros Ht Ho. destruct (offset_print_opt oo Ho) as [H1 H2].
  unfold std_tail, sbind, speek. cbv beta iota.
  change (byte_eqb x54 x54 || byte_eqb x54 x74 || byte_eqb x54 x20) with true. cbv iota.
  unfold snext. cbn [tl]. rewrite (time_print t _ Ht H2). rewrite H1. reflexivity.
Qed.

Theorem print_parse_std d : in_range d = true -> std_from_str (display_datetime d) = Some d.
Proof.
  destruct d as [[dt|] [t|] oo]; unfold in_range, display_datetime; cbn [d_date d_time d_offset].
  - (* date and time, offset or not *)
    intro H.
    match goal with |- context [(_ ++ display_time t) ++ ?O] => change O with (display_off oo) end.
    assert (Hd : date_ok dt = true) by (destruct oo; lia).
    assert (Ht : time_ok t = true) by (destruct oo; lia).
    assert (Ho : forall o, oo = Some o -> offset_ok o = true) by (intros o ->; lia).
    match goal with |- std_from_str (display_date dt ++ ?R) = _ =>
      destruct (date_third dt R Hd) as (c & Hc & Hcc) end.
    rewrite (std_from_str_nth _ c Hc), Hcc. rewrite (date_print dt _ Hd).
    rewrite <- app_assoc. cbn [app].
    rewrite (tail_print dt t oo Ht Ho). reflexivity.
  - (* date only *)
    destruct oo; [discriminate|]. intro Hd. cbn [app].
    destruct (date_third dt [] Hd) as (c & Hc & Hcc).
    rewrite (std_from_str_nth _ c Hc), Hcc. rewrite (date_print dt _ Hd). reflexivity.
  - (* time only *)
    destruct oo; [discriminate|]. intro Ht. cbn [app].
    rewrite (std_from_str_nth _ colon (time_third t [] Ht)).
    change (byte_eqb colon colon) with true. cbv iota.
    rewrite (time_print t [] Ht I). reflexivity.
  - destruct oo; discriminate.
Qed.

Theorem print_parse d :
  in_range d = true ->
  std_from_str (display_datetime d) = Some d /\ doc_datetime (display_datetime d) = Some d.
Proof.
  intro H. pose proof (print_parse_std d H) as Hs. split; [exact Hs|]. rewrite <- agree. exact Hs.
Qed.
