(* Proofs/DefsEquivMain.v — C09: key/value step, statement step, whole runs; the lemmas that
   Props/C09.v exports. *)
From TV Require Import Base.Prelude Model.Tree Model.Parse Model.Document Spec.Defs.
From TV Require Import Proofs.DefsEquivBase Proofs.DefsEquivSpec Proofs.DefsEquivKv Proofs.DefsEquivWalk
                       Proofs.DefsEquivSim.
From TV Require Import Proofs.DocumentOps.

(* ---- key = value ----------------------------------------------------------------------------- *)
Lemma kv_cur_facts st v :
  abs_tbl (kv_cur st v) = abs_tbl (st_current st) /\ mok_tbl (kv_cur st v) = mok_tbl (st_current st) /\
  t_implicit (kv_cur st v) = t_implicit (st_current st) /\ t_dotted (kv_cur st v) = t_dotted (st_current st).
Proof.
  unfold kv_cur. destruct (t_span (st_current st)); [|auto]. destruct (item_span v); [|auto].
  rewrite abs_set_span, mok_set_span, implicit_set_span, dotted_set_span. auto.
Qed.

Lemma at_cur_spec arr k0 pre0 (Rt C T : stree value) (G : stree value -> res (stree value)) :
  at_path_x pre0 (plug arr k0 C) Rt = ROk (T, tt) ->
  match G C with
  | ROk C' => exists T', at_path_x pre0 (plug arr k0 C') Rt = ROk (T', tt) /\ at_path (pre0 ++ [k0]) G T = ROk T'
  | RInvalid => at_path (pre0 ++ [k0]) G T = RInvalid
  | RUndecided => at_path (pre0 ++ [k0]) G T = RUndecided
  end.
Proof.
  intro H. rewrite at_path_lift, (plug_then_walk arr k0 (lift G) C pre0 Rt T H). unfold lift.
  destruct (G C) as [C'| |]; cbn [rbind fst snd]; try reflexivity.
  destruct (plug_any arr k0 C C' pre0 Rt T H) as [T' HT']. exists T'. split; [exact HT'|].
  rewrite HT'. reflexivity.
Qed.

Lemma keyval_sim st T cp pre k v :
  Inv st (T, cp) ->
  match at_path cp (insert_kv false (keys pre ++ [k_key k]) v) T with
  | ROk T' => exists st', on_keyval st pre k (IValue v) = COk st' /\ Inv st' (T', cp)
  | RInvalid => exists c, on_keyval st pre k (IValue v) = CErr c
  | RUndecided => True
  end.
Proof.
  intros (Hcp & Hmr & Hmc & Hci & Hcd & HsT & HsC & Hplug).
  rewrite on_keyval_eq. pose proof (kv_key_key st k) as Hk. set (k' := kv_key st k) in *.
  destruct (kv_cur_facts st (IValue v)) as (Fa & Fm & Fi & Fd).
  set (cur0 := kv_cur st (IValue v)) in *.
  set (G := insert_kv false (keys pre ++ [k_key k]) v).
  assert (Hsim : simres cur0 (with_table_at cur0 pre true (f_keyval k' (IValue v) (path_empty pre)))
                        (G (abs_tbl cur0))).
  { unfold G. rewrite <- Hk. destruct pre as [|pk ptl].
    - cbn [with_table_at keys map app]. apply f_keyval_leaf; [rewrite Fm; exact Hmc | rewrite Fd; exact Hcd].
    - apply wta_kv; [rewrite Fm; exact Hmc | rewrite Fa; exact HsC | discriminate]. }
  rewrite Fa in Hsim.
  assert (Hswf : forall T', at_path cp G T = ROk T' -> swf_tree T' = true).
  { intros T' HT'. refine (at_path_inv _ _ _ _ _ walk_inv_swf HsT _ HT'). intros t t'. apply insert_kv_swf. }
  destruct (pop_key (st_path st)) as [[pre0 k0]|] eqn:Ep.
  - (* inside a [header] / [[header]] section *)
    apply pop_key_some in Ep. rewrite Ep, keys_app in Hcp. cbn [keys map] in Hcp. fold (keys pre0) in Hcp.
    pose proof (at_cur_spec _ _ _ _ _ _ G Hplug) as Hspec. rewrite <- Hcp in Hspec.
    destruct (G (abs_tbl (st_current st))) as [C'| |] eqn:EG; cbn [simres] in Hsim.
    + destruct Hspec as (T' & HT' & Hat). rewrite Hat in *.
      destruct Hsim as (cur' & Hr & Ha' & Hm' & Hi' & Hd'). rewrite Hr.
      eexists. split; [reflexivity|]. unfold Inv. cbn [st_path st_root st_current st_is_array].
      rewrite Ep, pop_key_app, Ha'.
      split; [rewrite Hcp, keys_app; reflexivity|]. split; [exact Hmr|]. split; [exact Hm'|].
      split; [rewrite Hi', Fi; exact Hci|]. split; [rewrite Hd', Fd; exact Hcd|].
      split; [apply Hswf; reflexivity|]. split; [|exact HT'].
      eapply insert_kv_swf; [exact HsC | exact EG].
    + rewrite Hspec. destruct Hsim as [c Hc]. rewrite Hc. eexists; reflexivity.
    + rewrite Hspec. exact I.
  - (* the root section *)
    destruct Hplug as [Hroot HT]. pose proof (pop_key_none _ Ep) as Hp0.
    rewrite Hp0 in Hcp. cbn [keys map] in Hcp. subst cp. cbn [at_path] in *. subst T.
    destruct (G (abs_tbl (st_current st))) as [C'| |] eqn:EG; cbn [simres] in Hsim.
    + destruct Hsim as (cur' & Hr & Ha' & Hm' & Hi' & Hd'). rewrite Hr.
      eexists. split; [reflexivity|]. unfold Inv. cbn [st_path st_root st_current st_is_array].
      rewrite Ep, Ha'.
      split; [rewrite Hp0; reflexivity|]. split; [exact Hmr|]. split; [exact Hm'|].
      split; [rewrite Hi', Fi; exact Hci|]. split; [rewrite Hd', Fd; exact Hcd|].
      split; [apply Hswf; reflexivity|]. split; [apply Hswf; reflexivity|]. auto.
    + destruct Hsim as [c Hc]. rewrite Hc. eexists; reflexivity.
    + exact I.
Qed.

(* ---- [header] / [[header]] -------------------------------------------------------------------- *)
Lemma on_header_eq arr st pre k tr sp :
  on_header arr st (pre ++ [k]) tr sp =
  match finalize_table st with
  | COk st1 =>
    let '(st2, leading) := take_trailing st1 in
    let dec := decor_new leading (raw_with_span tr) in
    if arr then start_array_table st2 (pre ++ [k]) dec sp else start_table st2 (pre ++ [k]) dec sp
  | e => e
  end.
Proof.
  unfold on_header. destruct (pre ++ [k]) eqn:E; [destruct pre; discriminate | reflexivity].
Qed.

Definition simstep (r : cres pstate) (s : res (sstate value)) : Prop :=
  match s with
  | ROk S' => exists st', r = COk st' /\ Inv st' S'
  | RInvalid => exists c, r = CErr c
  | RUndecided => True
  end.

Lemma mstep_sim st S m : Inv st S -> simstep (mstep st m) (spec_step false S (erase m)).
Proof.
  destruct S as [T cp]. intro HI. destruct m as [arr pre k tr sp | pre k v].
  - (* headers *)
    destruct (finalize_sim st T cp HI) as (root' & Hf & Ha & Hm).
    pose proof HI as (_ & _ & _ & _ & _ & HsT & _).
    cbn [mstep]. rewrite on_header_eq, Hf. unfold finalized. cbn [take_trailing st_root st_position st_current st_is_array st_path].
    destruct arr; cbn [erase spec_step]; rewrite unsnoc_app.
    + pose proof (start_array_table_sim
                    (mkState root' None (st_position st) tbl_new (st_is_array st) []) pre k
                    (decor_new (match st_trailing st with Some sp0 => raw_with_span sp0 | None => REmpty end) (raw_with_span tr))
                    sp T eq_refl eq_refl Hm Ha HsT) as H.
      destruct (at_path (keys pre) (def_elem (k_key k)) T) as [T'| |]; cbn [rbind simstep].
      * destruct H as (st' & Hs & HI'). exists st'. split; [exact Hs|].
        rewrite keys_app in HI'. exact HI'.
      * exact H.
      * exact I.
    + pose proof (start_table_sim
                    (mkState root' None (st_position st) tbl_new (st_is_array st) []) pre k
                    (decor_new (match st_trailing st with Some sp0 => raw_with_span sp0 | None => REmpty end) (raw_with_span tr))
                    sp T eq_refl eq_refl Hm Ha HsT) as H.
      destruct (at_path (keys pre) (def_table (k_key k)) T) as [T'| |]; cbn [rbind simstep].
      * destruct H as (st' & Hs & HI'). exists st'. split; [exact Hs|].
        rewrite keys_app in HI'. exact HI'.
      * exact H.
      * exact I.
  - cbn [mstep erase spec_step].
    pose proof (keyval_sim st T cp pre k v HI) as H.
    destruct (at_path cp (insert_kv false (keys pre ++ [k_key k]) v) T) as [T'| |]; cbn [rbind simstep]; exact H.
Qed.

Lemma mfold_sim ms : forall st S, Inv st S -> simstep (mfold st ms) (spec_fold false S (map erase ms)).
Proof.
  induction ms as [|m tl IH]; intros st S HI; cbn [mfold map spec_fold].
  - exists st. auto.
  - pose proof (mstep_sim st S m HI) as H.
    destruct (spec_step false S (erase m)) as [S'| |]; cbn [simstep rbind] in *.
    + destruct H as (st' & Hs & HI'). rewrite Hs. apply IH. exact HI'.
    + destruct H as [c Hc]. rewrite Hc. eexists; reflexivity.
    + exact I.
Qed.

(* ---- whole runs ----------------------------------------------------------------------------- *)
Theorem run_sim ms :
  match code_run (map erase ms) with
  | Valid t => exists r, run_state ms = COk r /\ abs_tbl r = t /\ mok_tbl r = true /\ swf_tree t = true
  | Invalid => exists c, run_state ms = CErr c
  | Undecided => False
  end.
Proof.
  pose proof (code_run_decides (map erase ms)) as Hd.
  unfold code_run, run, run_state in *. pose proof (mfold_sim ms state_new sstate0 Inv_init) as H.
  destruct (spec_fold false sstate0 (map erase ms)) as [[T cp]| |]; cbn [simstep] in H.
  - destruct H as (st' & Hs & HI). rewrite Hs.
    destruct (finalize_sim st' T cp HI) as (root' & Hf & Ha & Hm). rewrite Hf.
    destruct HI as (_ & _ & _ & _ & _ & HsT & _).
    exists root'. auto.
  - destruct H as [c Hc]. rewrite Hc. eexists; reflexivity.
  - apply Hd. reflexivity.
Qed.

Lemma invalid_rejected ms :
  spec_run (map erase ms) = Invalid -> exists c, run_state ms = CErr c.
Proof.
  intro H. pose proof (run_sim ms) as R. rewrite spec_run_code_run in R by (rewrite H; discriminate).
  rewrite H in R. exact R.
Qed.

Lemma valid_merged ms t :
  spec_run (map erase ms) = Valid t -> exists r, run_state ms = COk r /\ abs_tbl r = t.
Proof.
  intro H. pose proof (run_sim ms) as R. rewrite spec_run_code_run in R by (rewrite H; discriminate).
  rewrite H in R. destruct R as (r & H1 & H2 & _). exists r. auto.
Qed.

(* the tree delivered for a valid document has unique keys and no empty array of tables, and
   contains no Item::None *)
Lemma valid_wellformed ms t :
  spec_run (map erase ms) = Valid t ->
  exists r, run_state ms = COk r /\ abs_tbl r = t /\ mok_tbl r = true /\ swf_tree t = true.
Proof.
  intro H. pose proof (run_sim ms) as R. rewrite spec_run_code_run in R by (rewrite H; discriminate).
  rewrite H in R. exact R.
Qed.

Lemma no_panic ms s : run_state ms <> CPanic s.
Proof.
  pose proof (run_sim ms) as R. destruct (code_run (map erase ms)).
  - destruct R as (r & H & _). rewrite H. discriminate.
  - destruct R as [c H]. rewrite H. discriminate.
  - contradiction.
Qed.

Lemma spelling_irrelevant ms1 ms2 :
  map erase ms1 = map erase ms2 ->
  match run_state ms1, run_state ms2 with
  | COk r1, COk r2 => abs_tbl r1 = abs_tbl r2
  | CErr _, CErr _ => True
  | _, _ => False
  end.
Proof.
  intro E. pose proof (run_sim ms1) as R1. pose proof (run_sim ms2) as R2. rewrite E in R1.
  destruct (code_run (map erase ms2)).
  - destruct R1 as (r1 & H1 & A1 & _). destruct R2 as (r2 & H2 & A2 & _). rewrite H1, H2. congruence.
  - destruct R1 as [c1 H1]. destruct R2 as [c2 H2]. rewrite H1, H2. exact I.
  - contradiction.
Qed.

(* the code's verdict, for ALL sequences (U1 included), is the one of the non-strict run *)
Lemma code_verdict ms :
  match code_run (map erase ms) with
  | Valid t => exists r, run_state ms = COk r /\ abs_tbl r = t
  | Invalid => exists c, run_state ms = CErr c
  | Undecided => False
  end.
Proof.
  pose proof (run_sim ms) as R. destruct (code_run (map erase ms)); [|exact R|exact R].
  destruct R as (r & H1 & H2 & _). exists r. auto.
Qed.

(* the classifier of class U1 is the Undecided verdict of the (decidable, computable) spec *)
Lemma u1_b_spec (l : list (stmt value)) : u1_b l = true <-> spec_run l = Undecided.
Proof. unfold u1_b. destruct (spec_run l); split; intro H; try discriminate; reflexivity. Qed.

(* whitespace / comments between statements only move st_trailing, which the invariant ignores
   (for users of mstep_sim / mfold_sim that interleave on_ws, i.e. the whole-document proofs) *)
Lemma Inv_on_ws st S sp : Inv st S -> Inv (on_ws st sp) S.
Proof. destruct S as [T cp]. unfold Inv, on_ws. cbn [st_path st_root st_current st_is_array]. exact (fun H => H). Qed.
