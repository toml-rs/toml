(* Proofs/SerdeRT.v — C07, toml_edit's family: whatever ValueSerializer accepts, ValueDeserializer reads
   back as an equal value.  What it accepts has no unsupported shape (SerdeRTRefuse), and such a value
   round-trips in either family (SerdeRTFamily). *)
From TV Require Import Base.Prelude Spec.SerdeData Model.Ser Model.De Proofs.SerdeRTBase Proofs.SerdeRTEq Proofs.SerdeRTLeaf
  Proofs.SerdeRTLists Proofs.SerdeRTKeys Proofs.SerdeRTFamily Proofs.SerdeRTRefuse.
From Coq Require Import Permutation.

Definition RT (t : ty) : Prop :=
  forall v x, has_type_b t v = true -> ser_value t v = Ok x -> exists v', de_value t x = Ok v' /\ sval_eq v v'.

(* ValueSerializer's table keeps the entries in the order written *)
Lemma edit_table_ok ps : NoDup (map fst ps) -> NoDup (map fst (tab_of_pairs ps)) /\ Permutation ps (tab_of_pairs ps).
Proof. intro Hnd. rewrite (tab_of_pairs_nodup ps Hnd). split; [exact Hnd|apply Permutation_refl]. Qed.

Lemma edit_key_ok t a s : has_type_b t a = true -> ser_key t a = Ok s -> ser_key t a = Ok s /\ de_key t s = Ok a.
Proof. intros Hty K. split; [exact K|apply (key_roundtrip t a s Hty K)]. Qed.

(* read from any tree the relation E allows in place of the tree written *)
Theorem roundtrip_rel (E : tree_rel) t v x y : has_type_b t v = true -> ser_value t v = Ok x -> tr E x y ->
  exists v', de_value t y = Ok v' /\ sval_eq v v'.
Proof.
  intros Hty H He.
  apply (family_roundtrip edit_family edit_de_family E ser_int_value_ok edit_key_ok edit_table_ok t v Hty) with (x := x); [|exact H|exact He].
  apply (ser_ok_iff_supported t v Hty). exists x. exact H.
Qed.

Theorem roundtrip_value : forall t, RT t.
Proof. intros t v x Hty H. apply (roundtrip_rel same_tree t v x x Hty H eq_refl). Qed.

(* ---- the field loop and the entry loop of ValueSerializer, for the proofs that follow a table through printing ---- *)
Lemma rt_fields fs : Forall (fun ft => RT (snd ft)) fs -> forall vs ps,
  all2b (fun ft v' => has_type_b (snd ft) v') fs vs = true -> ser_fields fs vs = Ok ps ->
  Forall3 (field_rt de_value eq) fs vs ps.
Proof.
  intros IH vs ps Hty H. apply (fields_rt ser_value de_value eq fs vs); [|exact H].
  apply all2b_Forall2 in Hty.
  apply (Forall2_combine (fun ft => RT (snd ft)) _ (fun _ _ => True) _ fs vs) with (2 := IH) (3 := Hty); [|auto].
  intros ft v Hft Hv _ x y Hx <-. apply (Hft v x Hv Hx).
Qed.

Lemma rt_entries kt vt : RT vt -> is_opt vt = false -> forall es ps,
  forallb (fun kv => has_type_b kt (fst kv) && has_type_b vt (snd kv)) es = true ->
  ser_entries kt vt es = Ok ps ->
  exists xs, ps = map Some xs /\
    Forall2 (fun kv kx => key_text kt (fst kv) = Some (fst kx) /\ de_key kt (fst kx) = Ok (fst kv) /\ sval_eq (fst kv) (fst kv) /\
                          exists v', de_value vt (snd kx) = Ok v' /\ sval_eq (snd kv) v') es xs.
Proof.
  intros IHv Hno es ps Hty H.
  apply (entries_rt ser_value ser_key de_key (fun v x => exists v', de_value vt x = Ok v' /\ sval_eq v v') kt vt es); [|exact H].
  rewrite forallb_forall in Hty. apply Forall_forall. intros [k v] Hin.
  pose proof (Hty _ Hin) as Hkv. simpl in *. apply andb_true_iff in Hkv as [Hk Hv].
  split; [intros s Hs; apply (key_roundtrip kt k s Hk Hs)|]. split.
  - intros ->. pose proof (none_typed vt Hv). congruence.
  - intros x Hx. apply (IHv v x Hv Hx).
Qed.
