(* Proofs/TomlDisplayTie.v — the two models of toml's serializer agree: forgetting what the leaves hold (each leaf
   becomes the token `tok` gives it) turns the toml_edit document tree of Model/TomlDisplay.v (`tv_doc`, concrete
   leaves, Model/Tree.v trees) into the abstract document `dt` of Model/TomlValue.v (the transcription of the
   same code for C17: ser_value, fmt_item, fmt_root), hence its sections are those of Spec/Canonical.v (Props/C17.v). *)
From TV Require Import Proofs.CanonicalBase Proofs.CanonicalEmit Proofs.CanonicalRead.
From TV Require Import Base.Prelude.
From TV Require Import Model.Tree Model.Build.
From TV Require Import Model.TomlDisplay Proofs.TomlDisplay Proofs.TomlDisplayOrder.
From TV Require Model.TomlValue.
Require Import Lia.

Module TVal := Model.TomlValue.

Section Tie.
  Variable tok : scalar -> bytes.        (* the token standing for a leaf as the serializer hands it on *)

  (* toml::Value with concrete leaves -> toml::Value with opaque leaves *)
  Fixpoint erase (v : tvc) : TVal.tv :=
    match v with
    | TvLeaf s => TVal.TLeaf (tok (ser_scalar s))
    | TvArr l => TVal.TArr (map erase l)
    | TvTab m => TVal.TTab (map (fun kv => (fst kv, erase (snd kv))) m)
    end.
  Definition erase_entries (m : list (bytes * tvc)) : list (bytes * TVal.tv) := map (fun kv => (fst kv, erase (snd kv))) m.

  (* toml_edit trees -> the abstract trees of Model/TomlValue.v (plain layout: no array is multi-line) *)
  Fixpoint iv_of_value (v : value) : TVal.iv :=
    match v with
    | VScalar s _ _ => TVal.VLeaf (tok s)
    | VArray vals _ _ _ _ => TVal.VArr false (flat_map (fun it => match it with IValue e => [iv_of_value e] | _ => [] end) vals)
    | VInline items _ _ _ _ _ =>
      TVal.VInl (flat_map (fun kv => match kv with (k, IValue e) => [(k_key k, iv_of_value e)] | _ => [] end) items)
    end.
  Fixpoint ditem_of_item (it : item) : TVal.ditem :=
    match it with
    | INone => TVal.IVal (TVal.VLeaf [])
    | IValue v => TVal.IVal (iv_of_value v)
    | ITable t => TVal.ITbl (dt_of_tbl t)
    | IAot ts _ => TVal.IAot (map dt_of_tbl ts)
    end
  with dt_of_tbl (t : tbl) : TVal.dt :=
    match t with
    | Tbl items _ im _ _ _ => TVal.DT im (map (fun kv => match kv with (k, i0) => (k_key k, ditem_of_item i0) end) items)
    end.

  (* ---- the tests of the loops ------------------------------------------------------------------------------- *)
  Lemma is_table_erase v : TVal.is_table (erase v) = tvc_is_table v. Proof. destruct v; reflexivity. Qed.
  Lemma existsb_erase l : existsb TVal.is_table (map erase l) = existsb tvc_is_table l.
  Proof. induction l as [|x l IH]; [reflexivity|]. cbn [map existsb]. rewrite is_table_erase, IH. reflexivity. Qed.
  Lemma pass1_erase v : TVal.pass1 (erase v) = c_pass1 v.
  Proof. destruct v as [s|l|m]; unfold TVal.pass1, c_pass1; cbn [erase TVal.is_table TVal.is_array TVal.arr_no_table tvc_is_table tvc_is_array]; rewrite ?existsb_erase; reflexivity. Qed.
  Lemma pass2_erase v : TVal.pass2 (erase v) = c_pass2 v.
  Proof. destruct v as [s|l|m]; unfold TVal.pass2, c_pass2, c_any_table; cbn [erase TVal.arr_any_table]; rewrite ?existsb_erase; reflexivity. Qed.
  Lemma pass3_erase v : TVal.pass3 (erase v) = c_pass3 v.
  Proof. destruct v; reflexivity. Qed.

  (* ---- 1. the serializer ---------------------------------------------------------------------------------------- *)
  Lemma ser_value_erase_tab m :
    TVal.ser_value (erase (TvTab m)) = TVal.EInl (map (fun kv => (fst kv, TVal.ser_value (erase (snd kv)))) (ord_kv true m)).
  Proof.
    cbn [erase]. rewrite CanonicalBase.ser_value_tab. unfold order3, ord_kv. rewrite !filter_map_comm. cbn [snd].
    rewrite (filter_ext (fun kv => TVal.pass1 (erase (snd kv))) (fun kv => c_pass1 (snd kv))) by (intro; apply pass1_erase).
    rewrite (filter_ext (fun kv => TVal.pass2 (erase (snd kv))) (fun kv => c_pass2 (snd kv))) by (intro; apply pass2_erase).
    rewrite (filter_ext (fun kv => TVal.pass3 (erase (snd kv))) (fun kv => c_pass3 (snd kv))) by (intro; apply pass3_erase).
    rewrite <- !map_app, map_map. reflexivity.
  Qed.

  (* ---- 2. values that stay values ---------------------------------------------------------------------------------- *)
  Lemma iv_built_array es tr c d sp0 : iv_of_value (VArray (map IValue es) tr c d sp0) = TVal.VArr false (map iv_of_value es).
  Proof. cbn [iv_of_value]. f_equal. induction es as [|e es IH]; [reflexivity|]. cbn [map flat_map app]. rewrite IH. reflexivity. Qed.
  Lemma iv_built_inline l pre im dt d sp0 :
    iv_of_value (VInline (mk_inline_items l) pre im dt d sp0) = TVal.VInl (map (fun kv => (fst kv, iv_of_value (snd kv))) l).
  Proof.
    cbn [iv_of_value]. f_equal. unfold mk_inline_items. induction l as [|[k e] l IH]; [reflexivity|].
    cbn [map flat_map app fst snd k_key key_new]. rewrite IH. reflexivity.
  Qed.

  Lemma value_tie : forall v, TVal.fmt_value false (TVal.ser_value (erase v)) = iv_of_value (tv_value v).
  Proof.
    apply tvc_strong.
    - reflexivity.
    - intros l IH. cbn [erase TVal.ser_value TVal.fmt_value tv_value andb]. unfold array_from_iter. rewrite iv_built_array. f_equal.
      rewrite !map_map. apply map_ext_in. intros x Hx. rewrite Forall_forall in IH. apply IH, Hx.
    - intros m IH. rewrite ser_value_erase_tab, fmt_value_inl, tv_value_tab. unfold vents. rewrite in_order_map, iv_built_inline.
      f_equal. rewrite !map_map. cbn [fst snd]. apply map_ext_in. intros kv Hkv. f_equal.
      rewrite Forall_forall in IH. apply (IH kv), (ord_kv_in true m kv Hkv).
  Qed.

  (* ---- 3. DocumentFormatter -------------------------------------------------------------------------------------------- *)
  Lemma is_inl_erase v : TVal.is_inl (TVal.ser_value (erase v)) = tvc_is_table v.
  Proof. destruct v as [s|l|m]; [reflexivity|reflexivity|]. rewrite ser_value_erase_tab. reflexivity. Qed.

  Lemma forallb_inl_erase l : forallb TVal.is_inl (map TVal.ser_value (map erase l)) = forallb tvc_is_table l.
  Proof. induction l as [|y l IH]; [reflexivity|]. cbn [map forallb]. rewrite is_inl_erase, IH. reflexivity. Qed.
  Lemma aot_able_erase l : TVal.aot_able (map TVal.ser_value (map erase l)) = c_aot_able l.
  Proof.
    unfold TVal.aot_able, c_aot_able. destruct l as [|x l]; [reflexivity|].
    change (TVal.nonempty (map TVal.ser_value (map erase (x :: l)))) with true. cbn [andb]. apply forallb_inl_erase.
  Qed.

  Lemma dt_doc_tbl b l : dt_of_tbl (doc_tbl b l) = TVal.DT b (map (fun kv => (fst kv, ditem_of_item (snd kv))) l).
  Proof.
    unfold doc_tbl. cbn [dt_of_tbl]. f_equal. unfold mk_tbl_items. rewrite map_map. cbn [fst snd k_key key_new]. reflexivity.
  Qed.

  Lemma nonempty_ord m : TVal.nonempty (map (fun kv : bytes * tvc => (fst kv, TVal.ser_value (erase (snd kv)))) (ord_kv true m)) = nonempty_b m.
  Proof.
    destruct m as [|kv m]; [reflexivity|].
    pose proof (ord_kv_perm true (kv :: m)) as Hp. destruct (ord_kv true (kv :: m)) as [|y O] eqn:E; [|reflexivity].
    apply Permutation.Permutation_sym, Permutation.Permutation_nil in Hp. discriminate.
  Qed.

  Theorem item_tie : forall v, TVal.fmt_item false (TVal.ser_value (erase v)) = ditem_of_item (tv_item v).
  Proof.
    apply tvc_strong.
    - reflexivity.
    - intros l IH. cbn [erase TVal.ser_value]. cbn [TVal.fmt_item]. rewrite aot_able_erase.
      destruct (c_aot_able l) eqn:Ea.
      + rewrite (tv_item_aot l Ea). cbn [ditem_of_item]. f_equal.
        assert (Hall : forallb tvc_is_table l = true) by (destruct l; [discriminate|exact Ea]). clear Ea.
        rewrite Forall_forall in IH. induction l as [|x l IHl]; [reflexivity|].
        cbn [forallb] in Hall. apply andb_true_iff in Hall as [Hx Hl]. cbn [map].
        rewrite (IH x (or_introl eq_refl)). destruct x as [s|l0|m]; try discriminate.
        rewrite tv_item_tab. cbn [ditem_of_item tab_of fst snd]. f_equal. apply IHl; [|exact Hl]. intros y Hy. apply IH. right. exact Hy.
      + cbn [tv_item]. rewrite Ea. cbn [ditem_of_item]. f_equal.
        exact (value_tie (TvArr l)).
    - intros m IH. rewrite ser_value_erase_tab, fmt_item_inl, tv_item_tab. cbn [ditem_of_item]. f_equal.
      rewrite dt_doc_tbl, nonempty_ord. f_equal. unfold ients. rewrite in_order_map, !map_map. cbn [fst snd].
      apply map_ext_in. intros kv Hkv. f_equal. rewrite Forall_forall in IH. apply (IH kv), (ord_kv_in true m kv Hkv).
  Qed.

  (* ---- the document: toml::to_string(&Value::Table(m)) and Display for toml::Table --------------------------------- *)
  Theorem doc_tie_value m : dt_of_tbl (tv_doc true m) = TVal.fmt_root false (TVal.ser_root_value (erase_entries m)).
  Proof.
    unfold TVal.ser_root_value. change (TVal.TTab (erase_entries m)) with (erase (TvTab m)). rewrite ser_value_erase_tab.
    unfold TVal.fmt_root, tv_doc. fold (ients m). rewrite dt_doc_tbl, nonempty_ord. f_equal.
    unfold ients. rewrite in_order_map, !map_map. cbn [fst snd]. apply map_ext. intro kv. f_equal. symmetry. apply item_tie.
  Qed.

  Theorem doc_tie_table m : dt_of_tbl (tv_doc false m) = TVal.fmt_root false (TVal.ser_map (erase_entries m)).
  Proof.
    unfold TVal.fmt_root, TVal.ser_map, tv_doc, erase_entries. fold (ients m). rewrite dt_doc_tbl. f_equal.
    - destruct m; reflexivity.
    - unfold ients. rewrite in_order_map, !map_map. cbn [fst snd ord_kv]. apply map_ext. intro kv. f_equal. symmetry. apply item_tie.
  Qed.

  (* the sections the encoder visits (visit_nested_tables / visit_table of Model/TomlValue.v) on tv_doc are the document
     Model/TomlValue.v computes *)
  Corollary sections_tie_value m :
    flat_map TVal.visit_table (TVal.visit_nested (dt_of_tbl (tv_doc true m)) [] false) = TVal.emit_value_doc false (erase_entries m).
  Proof. rewrite doc_tie_value. reflexivity. Qed.
  Corollary sections_tie_table m :
    flat_map TVal.visit_table (TVal.visit_nested (dt_of_tbl (tv_doc false m)) [] false) = TVal.emit_table_doc false (erase_entries m).
  Proof. rewrite doc_tie_table. reflexivity. Qed.
End Tie.

From TV Require Spec.Canonical Props.C17.
Theorem toml_sections tok m :
  flat_map TVal.visit_table (TVal.visit_nested (dt_of_tbl tok (tv_doc true m)) [] false)
  = Spec.Canonical.sections_of false true true (erase_entries tok m) /\
  flat_map TVal.visit_table (TVal.visit_nested (dt_of_tbl tok (tv_doc false m)) [] false)
  = Spec.Canonical.sections_of false false true (erase_entries tok m).
Proof.
  split.
  - rewrite sections_tie_value. exact (Props.C17.C17_canonical_document Spec.Canonical.WValue false (erase_entries tok m)).
  - rewrite sections_tie_table. exact (Props.C17.C17_canonical_document Spec.Canonical.WTable false (erase_entries tok m)).
Qed.

(* ---- under BTreeMap: the sorted forms coincide ------------------------------------------------------------------------------ *)
From Coq Require Import Permutation.
Section Sorted.
  Variable tok : scalar -> bytes.
  Import Spec.Canonical.

  Lemma perm_tvc_erase : forall a b, perm_tvc a b -> perm_tv (erase tok a) (erase tok b).
  Proof.
    fix IH 3. intros a b H. destruct H as [s | l l' Hl | m m1 m' Hp Hm].
    - constructor.
    - cbn [erase]. constructor. induction Hl as [|x y l l' Hxy _ IHl]; cbn [map]; [constructor|]. constructor; [apply IH, Hxy|exact IHl].
    - cbn [erase]. apply PTab with (m1 := map (fun kv => (fst kv, erase tok (snd kv))) m1).
      + apply Permutation_map, Hp.
      + clear Hp. induction Hm as [|x y l l' [Hk Hxy] _ IHl]; cbn [map]; [constructor|]. constructor; [|exact IHl].
        cbn [fst snd]. split; [exact Hk|apply IH, Hxy].
  Qed.

  Lemma wf_tv_erase : forall v, wf_tvc v -> wf_tv (erase tok (norm_leaves v)) = true.
  Proof.
    apply wf_tvc_strong.
    - reflexivity.
    - intros l _ IH. cbn [norm_leaves erase wf_tv]. rewrite !map_map. induction IH as [|x l Hx _ IHl]; [reflexivity|].
      cbn [map forallb]. rewrite Hx, IHl. reflexivity.
    - intros m Hnd _ _ IH. cbn [norm_leaves erase]. rewrite map_map. cbn [fst snd wf_tv].
      apply andb_true_iff. split.
      + apply keys_distinct_spec. rewrite map_map. cbn [fst]. exact Hnd.
      + induction m as [|[k x] m IHm]; [reflexivity|]. cbn [map fst snd] in *. inversion IH as [|? ? Hx Hm]; subst.
        inversion Hnd; subst. rewrite Hx. cbn [andb]. apply IHm; assumption.
  Qed.

  (* sorted by key at every level (what the value is when toml::Map is a BTreeMap) the decoded value and the printed one
     coincide, whatever tokens stand for the leaves *)
  Theorem toml_display_sorted three m :
    wf_tvc (TvTab m) ->
    sort_tv (erase tok (TvTab (root_order three m))) = sort_tv (erase tok (norm_leaves (TvTab m))).
  Proof.
    intro Hwf. symmetry. apply (Props.C17.C17_permuted_is_equiv _ _ (perm_tvc_erase _ _ (document_same three m)) (wf_tv_erase _ Hwf)).
  Qed.
End Sorted.
