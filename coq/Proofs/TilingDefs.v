(* Proofs/TilingDefs.v — C03: the grammar-directed normal form of a document text.
   `vtext t a o`, `item_text e l o`, `lines_text t l o`: the text t has the derivation of
   Spec/Syntax.v denoting a / making the statements l, and o is t with
     - every CR of the trivia between tokens (ws-comment-newline inside arrays, line ends) removed,
     - every token (strings, numbers, date-times, booleans, keys, punctuation) kept verbatim,
     - every line end written as LF, and an LF added after a last statement line that the end of
       the text terminates.
   Two theorems meet here:
     Proofs/TilingNorm*.v   o is what the parser-independent scanner of Spec/Norm.v computes
                            (`normalize`), and
     Proofs/PrintBack*.v    o is what printing the parsed tree produces (`render`). *)
From TV Require Import Base.Prelude Spec.Lex Spec.Defs Spec.Syntax.
From TV Require Import Proofs.LexEquivBase.
Require Import Lia ZifyBool ZifyN ZifyNat.

(* RawString::encode_with_default: CR stripping (same function as Model/Encode.v strip_cr) *)
Definition ncr (s : bytes) : bytes := filter (fun b => negb (byte_eqb b x0d)) s.

(* a scalar token: string / boolean / date-time / float / integer *)
Inductive scalar_text : bytes -> aval -> Prop :=
| st_string t s : string_tok t s -> scalar_text t (AStr s)
| st_boolean t b : boolean_tok t b -> scalar_text t (ABool b)
| st_date_time t d : date_time_tok t d -> scalar_text t (ADate d)
| st_float t f : float_tok t f -> scalar_text t (AFloat f)
| st_integer t z : integer_tok t z -> scalar_text t (AInt z).

Inductive vtext : bytes -> aval -> bytes -> Prop :=
| vt_scalar t a : scalar_text t a -> vtext t a t
| vt_array_empty w : wscn_tok w -> vtext ([x5b] ++ w ++ [x5d]) (AArr []) ([x5b] ++ ncr w ++ [x5d])
| vt_array vs l o w :
    avtext vs l o -> wscn_tok w -> vtext ([x5b] ++ vs ++ w ++ [x5d]) (AArr l) ([x5b] ++ o ++ ncr w ++ [x5d])
| vt_inline_empty w : ws_tok w -> vtext ([x7b] ++ w ++ [x7d]) (AInl []) ([x7b] ++ w ++ [x7d])
| vt_inline w1 kvs l o w2 :
    ws_tok w1 -> iktext kvs l o -> ws_tok w2 ->
    vtext ([x7b] ++ w1 ++ kvs ++ w2 ++ [x7d]) (AInl l) ([x7b] ++ w1 ++ o ++ w2 ++ [x7d])
with avtext : bytes -> list aval -> bytes -> Prop :=
| avt_last w1 t a o w2 c :
    wscn_tok w1 -> vtext t a o -> wscn_tok w2 -> (c = [] \/ c = [x2c]) ->
    avtext (w1 ++ t ++ w2 ++ c) [a] (ncr w1 ++ o ++ ncr w2 ++ c)
| avt_more w1 t a o w2 u l ou :
    wscn_tok w1 -> vtext t a o -> wscn_tok w2 -> avtext u l ou ->
    avtext (w1 ++ t ++ w2 ++ [x2c] ++ u) (a :: l) (ncr w1 ++ o ++ ncr w2 ++ [x2c] ++ ou)
with iktext : bytes -> list (list bytes * aval) -> bytes -> Prop :=
| ikt_last k p w1 w2 t a o :
    key_tok k p -> ws_tok w1 -> ws_tok w2 -> vtext t a o ->
    iktext (k ++ w1 ++ [x3d] ++ w2 ++ t) [(p, a)] (k ++ w1 ++ [x3d] ++ w2 ++ o)
| ikt_more k p w1 w2 t a o w3 w4 u l ou :
    key_tok k p -> ws_tok w1 -> ws_tok w2 -> vtext t a o -> ws_tok w3 -> ws_tok w4 -> iktext u l ou ->
    iktext (k ++ w1 ++ [x3d] ++ w2 ++ t ++ w3 ++ [x2c] ++ w4 ++ u) ((p, a) :: l)
           (k ++ w1 ++ [x3d] ++ w2 ++ o ++ w3 ++ [x2c] ++ w4 ++ ou).

Scheme vtext_min := Minimality for vtext Sort Prop
  with avtext_min := Minimality for avtext Sort Prop
  with iktext_min := Minimality for iktext Sort Prop.
Combined Scheme vtext_mutind from vtext_min, avtext_min, iktext_min.

(* an item = an expression without its leading whitespace and without its line end *)
Inductive item_text : bytes -> list astmt -> bytes -> Prop :=
| itx_blank : item_text [] [] []
| itx_comment c : comment_tok c -> item_text c [] c
| itx_keyval k p w1 w2 t a o w c :
    key_tok k p -> ws_tok w1 -> ws_tok w2 -> vtext t a o -> ws_tok w -> opt_comment c ->
    item_text ((k ++ w1 ++ [x3d] ++ w2 ++ t) ++ w ++ c) [SKeyVal p a] ((k ++ w1 ++ [x3d] ++ w2 ++ o) ++ w ++ c)
| itx_std t p w c : std_table_tok t p -> ws_tok w -> opt_comment c -> item_text (t ++ w ++ c) [SHeader p] (t ++ w ++ c)
| itx_arr t p w c : array_table_tok t p -> ws_tok w -> opt_comment c -> item_text (t ++ w ++ c) [SArrHeader p] (t ++ w ++ c).

(* the LF that ends a statement line in the output (a comment / blank last line gets none) *)
Definition stmt_lf (l : list astmt) : bytes := match l with [] => [] | _ => [x0a] end.

(* complete lines, the last one possibly ended by the end of the text; between a line end and the
   next item: whitespace *)
Inductive lines_text : bytes -> list astmt -> bytes -> Prop :=
| ltx_nil : lines_text [] [] []
| ltx_last w0 e l o : ws_tok w0 -> item_text e l o -> lines_text (w0 ++ e) l (w0 ++ o ++ stmt_lf l)
| ltx_cons w0 e l o nl w t l' o' :
    ws_tok w0 -> item_text e l o -> newline_tok nl -> ws_tok w -> lines_text t l' o' ->
    lines_text (w0 ++ e ++ nl ++ w ++ t) (l ++ l') (w0 ++ o ++ [x0a] ++ w ++ o').

(* ---- ncr on the trivia: only the CR of a CRLF line end goes ------------------------------------------------- *)
Lemma ncr_app a b : ncr (a ++ b) = ncr a ++ ncr b.
Proof. apply filter_app. Qed.

Definition nocr (t : bytes) : Prop := forallb (fun b => negb (byte_eqb b x0d)) t = true.

Lemma ncr_nocr t : nocr t -> ncr t = t.
Proof.
  unfold nocr, ncr. induction t as [|b t IH]; [reflexivity|]. cbn [forallb filter].
  intro H. apply andb_true_iff in H as [Hb Ht]. rewrite Hb. rewrite IH by exact Ht. reflexivity.
Qed.

Lemma ncr_ws w : ws_tok w -> ncr w = w.
Proof. intro H. apply ncr_nocr. revert H. apply forallb_impl. intro b. cls. lia. Qed.

Lemma ncr_newline nl : newline_tok nl -> ncr nl = [x0a].
Proof. intros [-> | ->]; reflexivity. Qed.

Lemma ncr_comment c : comment_tok c -> ncr c = c.
Proof.
  intros (u & -> & Hu). apply ncr_nocr. unfold nocr. cbn [forallb]. change (negb (byte_eqb x23 x0d)) with true.
  revert Hu. apply forallb_impl. intro b. cls. lia.
Qed.

Lemma ncr_opt_comment c : opt_comment c -> ncr c = c.
Proof. intros [-> | H]; [reflexivity|apply ncr_comment, H]. Qed.

Lemma wscn_ncr w : wscn_tok w -> wscn_tok (ncr w).
Proof.
  induction 1 as [|b t Hb Ht IH|c nl t Hc Hn Ht IH]; [constructor| |].
  - change (b :: t) with ([b] ++ t). rewrite ncr_app.
    assert (Hw : ws_tok [b]) by (unfold ws_tok, all; cbn [forallb]; rewrite Hb; reflexivity).
    rewrite (ncr_ws [b] Hw). cbn [app]. constructor; assumption.
  - rewrite !ncr_app, (ncr_opt_comment c Hc), (ncr_newline nl Hn). apply wscn_nl; [exact Hc|left; reflexivity|exact IH].
Qed.
