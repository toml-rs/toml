(* Proofs/SpansNestState.v — C14, nesting in tables: the ParseState machine keeps `tnest`.

   Working invariant `tnestH h t` = `tnest t` plus three facts that make it inductive:
     * every array-of-tables span ends at or before h (h = start of the current table's header: what was
       finalized earlier lies to the left — this orders the elements of an array of tables);
     * a table made of a dotted key has a span;
     * an implicit super-table holds no values (only a table made of a dotted key or the current table
       receives values).
   on_keyval_sp = insertion (descend_path) + span bookkeeping (set_dotted_spans) on the same path is
   treated as ONE step (`okf_sds_nest`), as state.rs performs it. *)
From TV Require Import Base.Prelude.
From TV Require Import Model.Tree Model.Parse Model.Document.
From TV Require Import Proofs.NoPanicState.
From TV Require Import Proofs.SpansDefs Proofs.SpansBase Proofs.SpansValue Proofs.SpansState
                       Proofs.SpansNestLex Proofs.SpansNestInline.
From TV Require Import Proofs.KvFacts.
From TV Require Import Proofs.DocumentOps.
Require Import Lia ZifyBool ZifyN ZifyNat.

Lemma Forall_any {A} (l : list A) : Forall (fun _ => True) l.
Proof. apply Forall_forall. intros; exact I. Qed.

Definition is_value (it : item) : bool := match it with IValue _ => true | _ => false end.
Definition no_values (m : kvs) : bool := forallb (fun kv => negb (is_value (snd kv))) m.

Section H.
  Variable h : N.
  Definition aot_end_ok (asp : ospan) : bool := match asp with Some sp => (snd sp <=? h)%N | None => true end.

  Fixpoint tnestH (t : tbl) : bool :=
    match t with
    | Tbl items _ im dt _ sp =>
      (negb dt || negb (ospan_none sp))
      && (negb (im && negb dt) || forallb (fun kv => negb (is_value (snd kv))) items)
      && forallb (fun kv =>
                    match snd kv with
                    | INone => true
                    | IValue v => tn_value sp (fst kv) v
                    | ITable sub => tnestH sub
                    | IAot ts asp =>
                      aot_nest (map t_span ts) asp && aot_end_ok asp
                      && forallb (fun e => negb (t_dotted e)) ts && forallb tnestH ts
                    end) items
    end.

  Definition tnH1 (sp : ospan) (kv : key * item) : bool :=
    match snd kv with
    | INone => true
    | IValue v => tn_value sp (fst kv) v
    | ITable sub => tnestH sub
    | IAot ts asp =>
      aot_nest (map t_span ts) asp && aot_end_ok asp && forallb (fun e => negb (t_dotted e)) ts && forallb tnestH ts
    end.
  Definition tflags (t : tbl) (m : kvs) (sp : ospan) : bool :=
    (negb (t_dotted t) || negb (ospan_none sp)) && (negb (t_implicit t && negb (t_dotted t)) || no_values m).

  Lemma tnestH_mk t m s : tnestH (t_set_span (t_set_items t m) s) = tflags t m s && forallb (tnH1 s) m.
  Proof. destruct t; reflexivity. Qed.
  Lemma tnestH_unfold t : tnestH t = tflags t (t_items t) (t_span t) && forallb (tnH1 (t_span t)) (t_items t).
  Proof. destruct t; reflexivity. Qed.
End H.

Lemma tflags_set_items t m m' s : tflags (t_set_items t m') m s = tflags t m s.
Proof. destruct t; reflexivity. Qed.
Lemma tflags_set_span t m s' s : tflags (t_set_span t s') m s = tflags t m s.
Proof. destruct t; reflexivity. Qed.

Lemma tnestH_set_span h t s : tnestH h (t_set_span t s) = tflags t (t_items t) s && forallb (tnH1 h s) (t_items t).
Proof. rewrite <- (set_items_same t) at 1. apply tnestH_mk. Qed.
Lemma tnestH_set_items h t m : tnestH h (t_set_items t m) = tflags t m (t_span t) && forallb (tnH1 h (t_span t)) m.
Proof. rewrite <- (set_span_same (t_set_items t m)). rewrite span_set_items. apply tnestH_mk. Qed.

Lemma no_values_set m k new : no_values m = true -> is_value new = false -> no_values (kv_set m k new) = true.
Proof. intros H N. apply kv_set_forallb; [exact H|]. intros k0 old _ _. cbn [snd]. rewrite N. reflexivity. Qed.
Lemma no_values_push m k v : no_values m = true -> is_value v = false -> no_values (kv_push m k v) = true.
Proof. intros H N. apply kv_push_forallb; [exact H|]. cbn [snd]. rewrite N. reflexivity. Qed.

(* flags: a table update that stores no value keeps the flags *)
Lemma tflags_keep t m m' s : tflags t m s = true -> (no_values m = true -> no_values m' = true) -> tflags t m' s = true.
Proof.
  unfold tflags. intros H Hn. apply andb_true_iff in H as [H1 H2]. rewrite H1. cbn [andb].
  destruct (negb (t_implicit t && negb (t_dotted t))); [reflexivity|]. cbn [orb] in *. auto.
Qed.

(* new items in place of the old: no value where there was none, and every entry good under the table's span *)
Lemma tnestH_items h t m' :
  tnestH h t = true -> (no_values (t_items t) = true -> no_values m' = true) ->
  (forallb (tnH1 h (t_span t)) (t_items t) = true -> forallb (tnH1 h (t_span t)) m' = true) ->
  tnestH h (t_set_items t m') = true.
Proof.
  intros H Hv Hm. rewrite tnestH_unfold in H. apply andb_true_iff in H as [F1 F2].
  rewrite tnestH_set_items, (tflags_keep _ _ _ _ F1 Hv). exact (Hm F2).
Qed.

(* replacing, adding or removing an entry that is not a value: only the new entry has to be looked at
   (whatever key it stands under: keys matter for values only) *)
Lemma tnestH_set_entry h t k new :
  tnestH h t = true -> is_value new = false -> (forall k0, tnH1 h (t_span t) (k0, new) = true) ->
  tnestH h (t_set_items t (kv_set (t_items t) k new)) = true.
Proof.
  intros H Nv Hn. apply (tnestH_items h t _ H); intro X; [apply no_values_set; assumption|].
  apply kv_set_forallb; [exact X|]. intros k0 old _ _. apply Hn.
Qed.
Lemma tnestH_push_entry h t k new :
  tnestH h t = true -> is_value new = false -> tnH1 h (t_span t) (k, new) = true ->
  tnestH h (t_set_items t (kv_push (t_items t) k new)) = true.
Proof. intros H Nv Hn. apply (tnestH_items h t _ H); intro X; [apply no_values_push|apply kv_push_forallb]; assumption. Qed.
Lemma tnestH_remove_entry h t k : tnestH h t = true -> tnestH h (t_set_items t (kv_remove (t_items t) k)) = true.
Proof. intro H. apply (tnestH_items h t _ H); apply kv_remove_forallb. Qed.
(* adding a value: the table must be one that may hold values, and the pair must lie inside its span *)
Lemma tnestH_push_value h t k v :
  tnestH h t = true -> negb (t_implicit t && negb (t_dotted t)) = true -> tn_value (t_span t) k v = true ->
  tnestH h (t_set_items t (kv_push (t_items t) k (IValue v))) = true.
Proof.
  intros H Hf Hv. rewrite tnestH_unfold in H. apply andb_true_iff in H as [F1 F2].
  rewrite tnestH_set_items. apply andb_true_iff. split; [|apply kv_push_forallb; assumption].
  unfold tflags in *. apply andb_true_iff in F1 as [F1 _]. rewrite F1, Hf. reflexivity.
Qed.
Lemma tnestH_get h t k k0 it : tnestH h t = true -> kv_get (t_items t) k = Some (k0, it) -> tnH1 h (t_span t) (k0, it) = true.
Proof. intros H G. rewrite tnestH_unfold in H. apply andb_true_iff in H as [_ F2]. exact (kv_get_forallb _ _ _ _ _ F2 G). Qed.

(* ---- widening a table's span keeps its own keys and values inside ------------------------------------------ *)
Lemma tn_value_widen a b a' b' k v : (a' <= a)%N -> (b <= b')%N ->
  tn_value (Some (a, b)) k v = true -> tn_value (Some (a', b')) k v = true.
Proof.
  intros L U. unfold tn_value. intro H. apply andb_true_iff in H as [H1 H2]. apply andb_true_iff in H1 as [H1 H3].
  unfold kspan_in in *. rewrite (oraw_in_mono a b a' b' L U _ H1), (osp_in_mono a b a' b' L U _ H3), H2. reflexivity.
Qed.
Lemma tnH1_widen h a b a' b' kv : (a' <= a)%N -> (b <= b')%N -> tnH1 h (Some (a, b)) kv = true -> tnH1 h (Some (a', b')) kv = true.
Proof.
  intros L U. unfold tnH1. destruct (snd kv) as [|v|sub|ts asp]; auto. apply tn_value_widen; assumption.
Qed.
Lemma tnestH_widen h t a b a' b' : (a' <= a)%N -> (b <= b')%N ->
  tnestH h t = true -> t_span t = Some (a, b) -> tnestH h (t_set_span t (Some (a', b'))) = true.
Proof.
  intros L U H S. rewrite tnestH_unfold, S in H. apply andb_true_iff in H as [H1 H2]. rewrite tnestH_set_span.
  apply andb_true_iff. split.
  - unfold tflags in *. apply andb_true_iff in H1 as [_ H1]. rewrite H1. cbn [ospan_none negb]. rewrite orb_true_r. reflexivity.
  - revert H2. apply forallb_Forall_imp. apply Forall_forall. intros kv _. apply tnH1_widen; assumption.
Qed.

(* ---- monotone in h; implies the official predicate ----------------------------------------------------------- *)
Section TblInd.
  Variable P : tbl -> Prop.
  Hypothesis Hstep : forall items d im dt p sp,
      Forall (fun kv : key * item => match snd kv with
                                     | ITable sub => P sub
                                     | IAot ts _ => Forall P ts
                                     | _ => True
                                     end) items -> P (Tbl items d im dt p sp).
  Lemma tbl_ind2 : forall t, P t.
  Proof.
    apply (tree_ind3 (fun _ => True) (fun it => match it with ITable sub => P sub | IAot ts _ => Forall P ts | _ => True end) P); auto.
  Qed.
End TblInd.

Lemma tnestH_mono h h' : (h <= h')%N -> forall t, tnestH h t = true -> tnestH h' t = true.
Proof.
  intro Hle. apply (tbl_ind2 (fun t => tnestH h t = true -> tnestH h' t = true)).
  intros items d im dt p sp IH H. rewrite tnestH_unfold in *. cbn [t_items t_span] in *.
  apply andb_true_iff in H as [H1 H2]. rewrite H1. cbn [andb]. revert H2. apply forallb_Forall_imp.
  eapply Forall_impl; [|exact IH]. intros [k it] Hk. unfold tnH1. cbn [snd fst] in *.
  destruct it as [|v|sub|ts asp]; auto. intro H. apply andb4 in H as (A1 & A2 & A3 & A4). apply andb4. repeat split; auto.
  - unfold aot_end_ok in *. destruct asp as [sp0|]; [nlia|reflexivity].
  - revert A4. apply forallb_Forall_imp. exact Hk.
Qed.

Lemma tnest_eq items d im dt p sp :
  tnest (Tbl items d im dt p sp)
  = (negb dt || negb (ospan_none sp))
    && forallb (fun kv => match snd kv with
                          | INone => true
                          | IValue v => tn_value sp (fst kv) v
                          | ITable sub => tnest sub
                          | IAot ts asp => aot_nest (map t_span ts) asp && forallb (fun e => negb (t_dotted e)) ts && forallb tnest ts
                          end) items.
Proof. reflexivity. Qed.

Lemma tnestH_tnest h : forall t, tnestH h t = true -> tnest t = true.
Proof.
  apply (tbl_ind2 (fun t => tnestH h t = true -> tnest t = true)).
  intros items d im dt p sp IH H. rewrite tnestH_unfold in H. cbn [t_items t_span] in H.
  apply andb_true_iff in H as [H1 H2]. unfold tflags in H1. cbn [t_dotted t_implicit] in H1. apply andb_true_iff in H1 as [H1 _].
  rewrite tnest_eq, H1. cbn [andb]. revert H2. apply forallb_Forall_imp.
  eapply Forall_impl; [|exact IH]. intros [k it] Hk. unfold tnH1. cbn [snd fst] in *.
  destruct it as [|v|sub|ts asp]; auto. intro H. apply andb4 in H as (A1 & A2 & A3 & A4). apply andb3. repeat split; auto.
  revert A4. apply forallb_Forall_imp. exact Hk.
Qed.

(* ---- flags and span through descend_path / set_dotted_spans ---------------------------------------------------- *)
Lemma wta_flags {X} : forall path t dotted (f : tbl -> cres (tbl * X)) t' x,
  (forall p p' y, f p = COk (p', y) -> t_dotted p' = t_dotted p /\ t_implicit p' = t_implicit p) ->
  with_table_at t path dotted f = COk (t', x) -> t_dotted t' = t_dotted t /\ t_implicit t' = t_implicit t.
Proof.
  intros path t0 dotted f t' x0 Hf W.
  assert (Y : cres_post (fun t' _ => t_dotted t' = t_dotted t0 /\ t_implicit t' = t_implicit t0) (with_table_at t0 path dotted f));
    [|rewrite W in Y; exact Y].
  apply (wta_post dotted (fun _ => True) (fun _ => True) (fun t t' _ => t_dotted t' = t_dotted t /\ t_implicit t' = t_implicit t));
    [| | |exact I|apply Forall_any|].
  1-3: intros; split; [exact I|]; intros; rewrite dotted_set_items, implicit_set_items; auto.
  intros p _. specialize (Hf p). destruct (f p) as [[p' y]| |]; [|exact I|exact I]. cbn [cres_post]. eapply Hf; reflexivity.
Qed.

Lemma sds_props : forall path t ve,
  t_span (set_dotted_spans t path ve) = t_span t /\ t_dotted (set_dotted_spans t path ve) = t_dotted t
  /\ t_implicit (set_dotted_spans t path ve) = t_implicit t.
Proof.
  intros [|k ptl] t ve; cbn [set_dotted_spans]; [auto|].
  destruct (kv_get (t_items t) (k_key k)) as [[k' it]|]; [|auto]. destruct it; auto.
  rewrite span_set_items, dotted_set_items, implicit_set_items. auto.
Qed.

(* ---- on_keyval_sp as one step --------------------------------------------------------------------------------------- *)
Lemma f_keyval_flags k v pe p p' y :
  f_keyval k v pe p = COk (p', y) -> t_dotted p' = t_dotted p /\ t_implicit p' = t_implicit p.
Proof. intro E. apply f_keyval_inv in E as (_ & _ & ->). rewrite dotted_set_items, implicit_set_items. auto. Qed.
Lemma f_keyval_span k v pe p p' y : f_keyval k v pe p = COk (p', y) -> t_span p' = t_span p.
Proof. intro E. apply f_keyval_inv in E as (_ & _ & ->). apply span_set_items. Qed.

Section Step.
  Variable h : N.
  Variables (k' : key) (val : value) (mid av e : N).
  Hypothesis Sv : value_span val = Some (av, e).
  Hypothesis L1 : (mid <= av)%N.
  Hypothesis L2 : (av <= e)%N.
  Hypothesis Hval : vnest val = true.

  (* the new pair lies inside every span that starts at or before its key and ends at or after its value *)
  Lemma tn_value_new c a b : kchain c mid [k'] -> (a <= c)%N -> (e <= b)%N -> tn_value (Some (a, b)) k' val = true.
  Proof.
    intros Hch La Ub. unfold kchain in Hch. cbn [map chain] in Hch. destruct Hch as (x & y & Sk & G1 & G2 & G3).
    unfold tn_value. rewrite Hval, andb_true_r, (kspan_of_key_span a b k' x y Sk) by nlia.
    rewrite Sv. cbn [osp_in]. apply sp_in_pair; nlia.
  Qed.

  (* below the current table a dotted key walks through tables made of dotted keys (widened, or new) and
     implicit super-tables (left as they are); s is the span t is to carry *)
  Lemma okf_sds_nest : forall path t s c t' u,
    tnestH h (t_set_span t s) = true ->
    kchain c mid (path ++ [k']) ->
    (t_dotted t = true -> forall a b, s = Some (a, b) -> (a <= c)%N /\ (e <= b)%N) ->
    with_table_at t path true (f_keyval k' (IValue val) false) = COk (t', u) ->
    tnestH h (set_dotted_spans (t_set_span t' s) path (Some e)) = true.
  Proof.
    induction path as [|pk ptl IH]; intros t s c t' u Ht Hch Hwin E; cbn [with_table_at] in E.
    - (* the table that receives the pair is made of a dotted key *)
      cbn [set_dotted_spans]. apply f_keyval_inv in E as (Hd & _ & ->). cbn [negb] in Hd.
      rewrite set_span_set_items, <- (items_set_span t s). apply tnestH_push_value; [exact Ht| |].
      + rewrite dotted_set_span, Hd. cbn [negb]. rewrite andb_false_r. reflexivity.
      + rewrite span_set_span. destruct s as [[a b]|]; [|unfold tn_value; rewrite Hval; reflexivity].
        destruct (Hwin Hd a b eq_refl) as [La Ub]. exact (tn_value_new c a b Hch La Ub).
    - unfold kchain in Hch. cbn [app map chain] in Hch. destruct Hch as (x & y & Sk & G1 & G2 & G3).
      fold (kchain y mid (ptl ++ [k'])) in G3. pose proof (chain_le _ _ _ G3) as Gle.
      destruct (kv_get (t_items t) (k_key pk)) as [[k0 it]|] eqn:G.
      + assert (Hit : tnH1 h s (k0, it) = true).
        { rewrite <- (items_set_span t s) in G. rewrite <- (span_set_span t s). exact (tnestH_get _ _ _ _ _ Ht G). }
        destruct it as [|v|sub|ts asp]; try discriminate E.
        * (* an existing table: implicit *)
          cbn [andb] in E. destruct (negb (t_implicit sub)) eqn:Imp; [discriminate|].
          destruct (with_table_at sub ptl true (f_keyval k' (IValue val) false)) as [[sub' y0]| |] eqn:R; try discriminate E. inversion E; subst t' u. clear E.
          unfold tnH1 in Hit. cbn [snd] in Hit.
          destruct (wta_flags _ _ _ _ _ _ (f_keyval_flags _ _ _) R) as [Fd Fi].
          pose proof (wta_span _ _ _ _ _ _ (f_keyval_span _ _ _) R) as Fs.
          cbn [set_dotted_spans]. rewrite items_set_span, items_set_items, (kv_get_set_same _ _ _ _ _ G). rewrite Fd, Sk, Fs.
          rewrite kv_set_set. rewrite <- set_span_set_items, set_items_set_items.
          set (sub1 := if t_dotted sub then t_set_span sub' (widen (t_span sub) (x, y) e) else sub').
          assert (HY : tnestH h (set_dotted_spans sub1 ptl (Some e)) = true).
          { subst sub1. destruct (t_dotted sub) eqn:Dt.
            - (* a table made of a dotted key: widened *)
              rewrite tnestH_unfold in Hit. pose proof Hit as Hit0. apply andb_true_iff in Hit as [Fl _].
              unfold tflags in Fl. rewrite Dt in Fl. cbn [negb orb andb] in Fl. apply andb_true_iff in Fl as [Fl _].
              destruct (t_span sub) as [[a0 b0]|] eqn:Ss; [|discriminate Fl]. unfold widen; cbn [fst snd].
              eapply (IH sub (Some (N.min a0 x, N.max b0 e)) y); [|exact G3| |exact R].
              + apply (tnestH_widen h sub a0 b0); [nlia|nlia|rewrite tnestH_unfold, Ss; exact Hit0|exact Ss].
              + intros _ a b Eab. inversion Eab; subst. nlia.
            - (* an implicit super-table on the way: untouched *)
              rewrite <- (set_span_same sub'). rewrite Fs.
              eapply (IH sub (t_span sub) y); [|exact G3| |exact R].
              + rewrite set_span_same. exact Hit.
              + intro X. rewrite X in Dt. discriminate Dt. }
          rewrite set_span_set_items, <- (items_set_span t s).
          apply tnestH_set_entry; [exact Ht|reflexivity|intro; exact HY].
        * (* an array of tables: a dotted key never extends one *)
          destruct ptl as [|x0 ptl0]; cbn [andb] in E; [|discriminate].
          destruct (rev ts) as [|last rinit] eqn:Rv; [discriminate|]. cbn [with_table_at] in E.
          unfold tnH1 in Hit. cbn [snd] in Hit. apply andb4 in Hit as (_ & _ & A3 & _).
          rewrite <- forallb_rev, Rv in A3. cbn [forallb] in A3. apply andb_true_iff in A3 as [A3 _].
          destruct ((f_keyval k' (IValue val) false) last) as [[last' x0]| |] eqn:F; try discriminate E.
          apply f_keyval_inv in F as (Hd & _). rewrite Hd in A3. discriminate A3.
      + (* a new table made of a dotted key *)
        destruct (with_table_at (Tbl [] decor_default true true None None) ptl true (f_keyval k' (IValue val) false)) as [[sub' y0]| |] eqn:R; try discriminate E.
        inversion E; subst t' u. clear E.
        destruct (wta_flags _ _ _ _ _ _ (f_keyval_flags _ _ _) R) as [Fd Fi].
        pose proof (wta_span _ _ _ _ _ _ (f_keyval_span _ _ _) R) as Fs. cbn [t_dotted t_span] in Fd, Fs.
        cbn [set_dotted_spans]. rewrite items_set_span, items_set_items, (kv_get_push_new _ _ _ G). rewrite Fd, Sk, Fs.
        unfold widen; cbn [fst snd]. rewrite (kv_set_push_none _ _ _ _ G). rewrite <- set_span_set_items, set_items_set_items.
        assert (HY : tnestH h (set_dotted_spans (t_set_span sub' (Some (x, e))) ptl (Some e)) = true).
        { eapply (IH (Tbl [] decor_default true true None None) (Some (x, e)) y); [reflexivity|exact G3| |exact R].
          intros _ a b Eab. inversion Eab; subst. nlia. }
        rewrite set_span_set_items, <- (items_set_span t s).
        apply tnestH_push_entry; [exact Ht|reflexivity|exact HY].
  Qed.
End Step.

(* ---- the state invariant ------------------------------------------------------------------------------------------------ *)
Definition st_nest (st : pstate) : Prop :=
  exists a b, t_span (st_current st) = Some (a, b)
              /\ tnestH a (st_root st) = true /\ tnestH a (st_current st) = true
              /\ t_dotted (st_current st) = false /\ t_implicit (st_current st) = false.

Lemma st_nest_new : st_nest state_new.
Proof. exists 0%N, 0%N. cbn. auto. Qed.
Lemma st_nest_on_ws st sp : st_nest st -> st_nest (on_ws st sp).
Proof. intros H. exact H. Qed.

Lemma map_key_span_set_leaf path k d : map key_span (path ++ [set_leaf k d]) = map key_span (path ++ [k]).
Proof. rewrite !map_app. reflexivity. Qed.

Lemma on_keyval_sp_nest p c mid av e st path k val st' :
  st_in p st -> st_nest st -> (p <= c)%N ->
  kchain c mid (path ++ [k]) -> value_span val = Some (av, e) -> (mid <= av)%N -> (av <= e)%N -> vnest val = true ->
  on_keyval_sp st path k (IValue val) = COk st' -> st_nest st'.
Proof.
  intros (a0 & b0 & S0 & I1 & I2 & _) (a & b & S & Hr & Hc & Hd & Hi) Lc Hch Sv L1 L2 Hval E.
  rewrite S in S0. inversion S0; subst a0 b0. clear S0. pose proof (chain_le _ _ _ Hch) as Cle.
  apply on_keyval_sp_inv in E as (st1 & R & ->). apply on_keyval_inv in R as (cur' & W & ->).
  unfold kv_cur in W. cbn [item_span] in W. rewrite S, Sv in W. cbn [fst snd] in W.
  assert (Hch' : kchain c mid (path ++ [kv_key st k])) by (unfold kchain, kv_key; rewrite map_key_span_set_leaf; exact Hch).
  assert (Hc1 : tnestH a (t_set_span (st_current st) (Some (a, e))) = true) by (eapply tnestH_widen; [| |exact Hc|exact S]; nlia).
  cbn [st_root st_current st_trailing st_position st_is_array st_path]. unfold item_end. cbn [item_span]. rewrite Sv. cbn [snd].
  destruct (wta_flags _ _ _ _ _ _ (f_keyval_flags _ _ _) W) as [Fd Fi]. pose proof (wta_span _ _ _ _ _ _ (f_keyval_span _ _ _) W) as Fs.
  rewrite span_set_span in Fs. rewrite dotted_set_span in Fd. rewrite implicit_set_span in Fi.
  destruct (sds_props path cur' (Some e)) as (P1 & P2 & P3).
  exists a, e. cbn [st_current st_root]. rewrite P1, P2, P3, Fs, Fd, Fi. repeat split; auto.
  destruct path as [|pk ptl].
  - (* a plain key: the pair goes into the current table *)
    cbn [with_table_at] in W. apply f_keyval_inv in W as (_ & _ & ->). cbn [set_dotted_spans].
    apply tnestH_push_value; [exact Hc1|rewrite implicit_set_span, Hi; reflexivity|].
    rewrite span_set_span. apply (tn_value_new _ val mid av e Sv L1 L2 Hval c); [exact Hch'|nlia|apply N.le_refl].
  - rewrite <- (set_span_same cur'), Fs.
    eapply (okf_sds_nest a _ val mid av e Sv L1 L2 Hval _ _ (Some (a, e)) c); [|exact Hch'| |exact W].
    + rewrite set_span_set_span. exact Hc1.
    + intros _ x y Exy. inversion Exy; subst. nlia.
Qed.

(* ---- descend_path for headers (dotted = false) --------------------------------------------------------------------------- *)
Lemma tnH1_mono h h' sp kv : (h <= h')%N -> tnH1 h sp kv = true -> tnH1 h' sp kv = true.
Proof.
  intros Hle. unfold tnH1. destruct (snd kv) as [|v|sub|ts asp]; auto; [apply tnestH_mono, Hle|].
  intro H. apply andb4 in H as (A1 & A2 & A3 & A4). apply andb4. repeat split; auto.
  - unfold aot_end_ok in *. destruct asp; [nlia|reflexivity].
  - revert A4. apply forallb_Forall_imp. apply Forall_forall. intros t _. apply tnestH_mono, Hle.
Qed.
Lemma tnH1_novalue h sp sp' kv : is_value (snd kv) = false -> tnH1 h sp kv = tnH1 h sp' kv.
Proof. unfold tnH1. destruct (snd kv); [reflexivity|discriminate|reflexivity|reflexivity]. Qed.

Lemma map_span_rev_last (last last' : tbl) rinit :
  t_span last' = t_span last -> map t_span (rev (last' :: rinit)) = map t_span (rev (last :: rinit)).
Proof. intro H. cbn [rev]. rewrite !map_app. cbn [map]. rewrite H. reflexivity. Qed.

Definition wpost (h : N) {X} (Q : X -> Prop) (t : tbl) : tbl -> X -> Prop :=
  fun t' x => tnestH h t' = true /\ t_span t' = t_span t /\ t_dotted t' = t_dotted t /\ Q x.

Lemma wpost_set_items h {X} (Q : X -> Prop) t m x :
  tnestH h (t_set_items t m) = true -> Q x -> wpost h Q t (t_set_items t m) x.
Proof. intros H Hq. unfold wpost. rewrite span_set_items, dotted_set_items. auto. Qed.

Lemma wta_nest h h' {X} (Q : X -> Prop) : (h <= h')%N ->
  forall path t (f : tbl -> cres (tbl * X)) t' x,
  tnestH h t = true ->
  (forall p, tnestH h p = true -> cres_post (wpost h' Q p) (f p)) ->
  with_table_at t path false f = COk (t', x) -> wpost h' Q t t' x.
Proof.
  intros Hle path t0 f t' x0 Ht0 Hf W.
  assert (Y : cres_post (wpost h' Q t0) (with_table_at t0 path false f)); [|rewrite W in Y; exact Y].
  apply (wta_post false (fun t => tnestH h t = true) (fun _ => True) (wpost h' Q)); [| | |exact Ht0|apply Forall_any|exact Hf].
  - intros t k Ht _ _. split; [reflexivity|]. intros sub' x (N1 & _ & _ & N4). apply wpost_set_items; [|exact N4].
    apply tnestH_push_entry; [exact (tnestH_mono h h' Hle t Ht)|reflexivity|exact N1].
  - intros t k k0 sub Ht G. split; [exact (tnestH_get _ _ _ _ _ Ht G)|]. intros sub' x (N1 & _ & _ & N4).
    apply wpost_set_items; [|exact N4]. apply tnestH_set_entry; [exact (tnestH_mono h h' Hle t Ht)|reflexivity|intro; exact N1].
  - intros t k k0 ts asp last rinit Ht G Rv. pose proof (tnestH_get _ _ _ _ _ Ht G) as Hit.
    unfold tnH1 in Hit; cbn [snd] in Hit. apply andb4 in Hit as (A1 & A2 & A3 & A4).
    rewrite <- forallb_rev, Rv in A3, A4. cbn [forallb] in A3, A4. apply andb_true_iff in A4 as [Hl Hri]. split; [exact Hl|].
    intros last' x (N1 & N2 & N3 & N4). apply wpost_set_items; [|exact N4].
    apply tnestH_set_entry; [exact (tnestH_mono h h' Hle t Ht)|reflexivity|intro].
    unfold tnH1; cbn [snd]. apply andb4. repeat split.
    + rewrite (map_span_rev_last last last' rinit N2), <- Rv, rev_involutive. exact A1.
    + unfold aot_end_ok in *. destruct asp; [nlia|reflexivity].
    + rewrite forallb_rev. cbn [forallb]. rewrite N3. exact A3.
    + rewrite forallb_rev. cbn [forallb]. rewrite N1. cbn [andb]. revert Hri. apply forallb_Forall_imp.
      apply Forall_forall. intros t1 _. apply tnestH_mono, Hle.
Qed.

(* ---- finalize_table -------------------------------------------------------------------------------------------------------- *)
Lemma f_fin_std_nest h k table parent :
  tnestH h table = true -> tnestH h parent = true -> cres_post (wpost h (fun _ : unit => True) parent) (f_fin_std k table parent).
Proof.
  intros Ht Hp. unfold f_fin_std. destruct (kv_get (t_items parent) (k_key k)) as [[k0 it]|].
  - destruct it as [|v|t|ts sp]; try exact I. destruct (t_implicit t); [|exact I].
    cbn [cres_post]. apply wpost_set_items; [|exact I]. apply tnestH_set_entry; [exact Hp|reflexivity|intro; exact Ht].
  - cbn [cres_post]. apply wpost_set_items; [|exact I]. apply tnestH_push_entry; [exact Hp|reflexivity|exact Ht].
Qed.

Lemma aot_single a b : (a <= b)%N -> aot_nest (@cons ospan (Some (a, b)) nil) (Some (a, b)) = true.
Proof. intro H. cbn [aot_nest forallb osp_in]. rewrite N.eqb_refl, (sp_in_pair a b a b) by nlia. reflexivity. Qed.

(* the finished table (span (a, b), b <= p) joins an array of tables whose span ends at or before a *)
Lemma f_fin_aot_nest a b p k table parent : (a <= b)%N -> (b <= p)%N ->
  tnestH p table = true -> t_span table = Some (a, b) -> t_dotted table = false ->
  tnestH a parent = true -> cres_post (wpost p (fun _ : unit => True) parent) (f_fin_aot k table parent).
Proof.
  intros Hab Hbp Ht S Hd Hp. assert (Hap : (a <= p)%N) by nlia.
  pose proof (tnestH_mono a p Hap parent Hp) as Hp'. unfold f_fin_aot.
  destruct (kv_get (t_items parent) (k_key k)) as [[k0 it]|] eqn:G.
  - pose proof (tnestH_get _ _ _ _ _ Hp G) as Hit. destruct it as [|v|t|ts asp]; try exact I. cbv zeta.
    unfold tnH1 in Hit; cbn [snd] in Hit. apply andb4 in Hit as (A1 & A2 & A3 & A4).
    cbn [cres_post]. apply wpost_set_items; [|exact I]. apply tnestH_set_entry; [exact Hp'|reflexivity|intro].
    unfold tnH1; cbn [snd].
    assert (T4 : forallb (tnestH p) (ts ++ [table]) = true).
    { rewrite forallb_app. cbn [forallb]. rewrite Ht, andb_true_r. revert A4. apply forallb_Forall_imp.
      apply Forall_forall. intros t0 _. apply tnestH_mono, Hap. }
    assert (T3 : forallb (fun e => negb (t_dotted e)) (ts ++ [table]) = true).
    { rewrite forallb_app, A3. cbn [forallb]. rewrite Hd. reflexivity. }
    destruct ts as [|first tl].
    + cbn [app map]. rewrite S. cbn [union_span fst snd]. apply andb4. repeat split; auto.
      * apply aot_single, Hab.
      * unfold aot_end_ok; cbn [snd]. nlia.
    + cbn [app]. cbn [map] in A1. destruct asp as [[a0 b0]|]; [|discriminate A1].
      cbn [aot_nest] in A1. destruct (t_span first) as [[x y]|] eqn:Sf; [|discriminate A1].
      apply andb_true_iff in A1 as [X1 X2]. apply N.eqb_eq in X1. subst x.
      unfold aot_end_ok in A2; cbn [snd] in A2. cbn [forallb] in X2. apply andb_true_iff in X2 as [X2 X3].
      cbn [osp_in] in X2. unfold sp_in in X2; cbn [fst snd] in X2.
      rewrite S. cbn [union_span fst snd]. apply andb4. repeat split; auto.
      * cbn [map aot_nest]. rewrite Sf, N.eqb_refl. cbn [andb forallb osp_in].
        rewrite (sp_in_pair a0 b a0 y) by nlia. cbn [andb]. rewrite map_app, forallb_app. cbn [map forallb].
        rewrite S. cbn [osp_in]. rewrite (sp_in_pair a0 b a b) by nlia. rewrite andb_true_r.
        revert X3. apply forallb_Forall_imp. apply Forall_forall. intros o _. apply osp_in_mono; nlia.
      * unfold aot_end_ok; cbn [snd]. nlia.
  - cbn [cres_post]. apply wpost_set_items; [|exact I]. apply tnestH_push_entry; [exact Hp'|reflexivity|].
    unfold tnH1; cbn [snd]. rewrite S. cbn [union_span fst snd map forallb].
    rewrite S, Hd, Ht. cbn [negb andb]. rewrite (aot_single a b Hab). unfold aot_end_ok; cbn [snd andb].
    rewrite andb_true_r. nlia.
Qed.

Lemma finalize_nest p st st' :
  st_in p st -> st_nest st -> finalize_table st = COk st' -> tnestH p (st_root st') = true.
Proof.
  intros (a0 & b0 & S0 & I1 & I2 & _) (a & b & S & Hr & Hc & Hd & Hi) E.
  rewrite S in S0. inversion S0; subst a0 b0. clear S0. assert (Hap : (a <= p)%N) by nlia.
  pose proof (tnestH_mono a p Hap _ Hc) as Hc'. apply finalize_inv in E as (root' & -> & W). cbn [finalized st_root].
  destruct (pop_key (st_path st)) as [[ppath k]|]; [|destruct W as [_ ->]; exact Hc'].
  apply (wta_nest a p (fun _ => True) Hap) in W as [W _]; [exact W|exact Hr|].
  intros parent Hpar. destruct (st_is_array st).
  - apply (f_fin_aot_nest a b p); assumption.
  - apply f_fin_std_nest; [exact Hc'|]. apply (tnestH_mono a p Hap), Hpar.
Qed.

(* ---- start_table / start_array_table ------------------------------------------------------------------------------------------ *)
Lemma f_start_aot_nest h k parent :
  tnestH h parent = true -> cres_post (wpost h (fun _ : unit => True) parent) (f_start_aot k parent).
Proof.
  intros Hpar. unfold f_start_aot. destruct (kv_get (t_items parent) (k_key k)) as [[k0 it]|].
  - destruct it; try exact I. cbn [cres_post]. unfold wpost. auto.
  - cbn [cres_post]. apply wpost_set_items; [|exact I]. apply tnestH_push_entry; [exact Hpar|reflexivity|reflexivity].
Qed.
(* a table taken out of the tree to be re-opened is an implicit super-table: it holds no values *)
Definition taken_ok (h : N) (x : option tbl) : Prop :=
  match x with Some t => tnestH h t = true /\ t_implicit t = true /\ t_dotted t = false | None => True end.
Lemma f_start_std_nest h k parent :
  tnestH h parent = true -> cres_post (wpost h (taken_ok h) parent) (f_start_std k parent).
Proof.
  intros Hpar. unfold f_start_std.
  destruct (kv_get (t_items parent) (k_key k)) as [[k0 it]|] eqn:G; [|cbn [cres_post]; unfold wpost, taken_ok; auto].
  pose proof (tnestH_get _ _ _ _ _ Hpar G) as Hit.
  destruct it as [|v|t|ts sp]; try exact I. destruct (t_implicit t) eqn:Im; cbn [andb]; [|exact I].
  destruct (t_dotted t) eqn:Dt; cbn [negb]; [exact I|].
  cbn [cres_post]. apply wpost_set_items; [|cbn [taken_ok]; auto]. apply tnestH_remove_entry, Hpar.
Qed.

(* an implicit super-table holds no values: its entries fit under whatever span its header brings *)
Lemma tnestH_reopen h t dec posn sp :
  tnestH h t = true -> t_implicit t = true -> t_dotted t = false -> tnestH h (Tbl (t_items t) dec false false posn sp) = true.
Proof.
  intros T1 T2 T3. rewrite tnestH_unfold in T1. apply andb_true_iff in T1 as [G1 G2].
  unfold tflags in G1. rewrite T2, T3 in G1. cbn [negb andb orb] in G1.
  rewrite tnestH_unfold. cbn [t_items t_span t_dotted t_implicit]. unfold tflags. cbn [t_dotted t_implicit negb andb orb].
  apply forallb_forall. intros kv Hin. unfold no_values in G1.
  pose proof (proj1 (forallb_forall _ _) G1 kv Hin) as Nv. pose proof (proj1 (forallb_forall _ _) G2 kv Hin) as Hkv.
  rewrite (tnH1_novalue h sp (t_span t) kv); [exact Hkv|]. apply negb_true_iff in Nv. exact Nv.
Qed.

Lemma start_nest (ia : bool) p e st path dec st' :
  tnestH p (st_root st) = true -> st_current st = tbl_new ->
  (if ia then start_array_table st path dec (p, e) else start_table st path dec (p, e)) = COk st' -> st_nest st'.
Proof.
  intros Hr Hc E. exists p, e. destruct ia.
  - apply start_array_table_inv in E as (_ & _ & ppath & k & root' & _ & W & ->).
    apply (wta_nest p p (fun _ => True) (N.le_refl _)) in W as [W _]; [|exact Hr|apply f_start_aot_nest].
    unfold open_table. cbn [st_current st_root t_span t_dotted t_implicit]. rewrite Hc. cbn [t_items tbl_new]. repeat split; auto.
  - apply start_table_inv in E as (_ & _ & ppath & k & root' & tk & _ & W & ->).
    apply (wta_nest p p (taken_ok p) (N.le_refl _)) in W as (W & _ & _ & Wt); [|exact Hr|apply f_start_std_nest].
    unfold open_table. cbn [st_current st_root t_span t_dotted t_implicit]. repeat split; auto.
    destruct tk as [t|]; [|rewrite Hc; reflexivity]. destruct Wt as (T1 & T2 & T3). apply tnestH_reopen; assumption.
Qed.

Lemma on_header_nest (ia : bool) p e st path trailing st' :
  st_in p st -> st_nest st -> on_header ia st path trailing (p, e) = COk st' -> st_nest st'.
Proof.
  intros Hst Hn E. unfold on_header in E. destruct path as [|k0 ptl] eqn:Ep; [discriminate|]. rewrite <- Ep in *.
  destruct (finalize_table st) as [st1| |] eqn:F; try discriminate E.
  pose proof (finalize_nest _ _ _ Hst Hn F) as Hr. destruct (finalize_in _ _ _ Hst F) as (_ & _ & Hc & _).
  unfold take_trailing in E. eapply (start_nest ia p e); [| |exact E]; cbn [st_root st_current]; assumption.
Qed.
