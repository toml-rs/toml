(* Proofs/BuiltRTLeaf.v — C06: every scalar the constructors accept prints as a token the value parser
   reads back as the same scalar, in front of anything that can follow a value in printed text
   (`,` `]` `}` newline, a blank before one of the closers, or the end of the text). *)
From TV Require Import Base.Prelude Base.Utf8 Base.Winnow Gen.Consts.
From TV Require Import Model.Trivia Model.Strings Model.Datetime Model.DatetimeStd Model.Numbers Model.Tree Model.Parse Model.Document.
From TV Require Import Model.Write Model.Encode Model.Build.
From TV Require Import Proofs.StringsRTDefs Proofs.StringsRTBase Proofs.StringsRTBasic Proofs.StringsRTTop.
From TV Require Import Proofs.NumbersRT_Lex Proofs.NumbersRT_Int Proofs.NumbersRT_Value.
From TV Require Import Proofs.BuiltRTBase Proofs.BuiltRTEncode Proofs.BuiltRTParse Proofs.BuiltRTKey Proofs.BuiltRTValue.
Require Import Lia ZifyBool ZifyN ZifyNat.

(* ---- what follows a number token ----------------------------------------------------------------------- *)
Definition nterm (r : bytes) : Prop :=
  match r with
  | [] => True
  | b :: r' =>
    is_digit b = false /\ byte_eqb underscore b = false /\ b <> dot /\ is_e b = false /\ b <> dash /\ b <> colon /\
    b <> x78 /\ b <> x6f /\ b <> x62 /\ b <> x54 /\ b <> x74 /\ b <> x5a /\ b <> x7a /\ b <> plus /\
    (b = x20 -> match r' with [] => True | c :: _ => is_digit c = false end)
  end.

Lemma vterm_nterm r : vterm r -> nterm r.
Proof.
  destruct r as [|b r']; [auto|]. cbn [vterm nterm].
  intros [[-> | [-> | ->]] | [-> | [-> Hc]]]; repeat split; try discriminate; try reflexivity.
  intros _. destruct Hc as (c & r2 & -> & [-> | [-> | ->]]); reflexivity.
Qed.

Lemma vterm_no_quote r : vterm r -> no_quote_head r.
Proof.
  destruct r as [|b r']; [auto|]. cbn [vterm no_quote_head].
  intros [[-> | [-> | ->]] | [-> | [-> _]]]; split; reflexivity.
Qed.

(* ---- value.rs on a scalar token: the span / decor bookkeeping -------------------------------------------- *)
Lemma leaf_intro ftext s :
  vhead (scalar_txt ftext s) ->
  (forall vr r p d, vterm r ->
     exists p', value_body vr (mkIn (scalar_txt ftext s ++ r) p d) = Ok (scalar_value s) (mkIn r p' d)) ->
  leaf_ok ftext s.
Proof.
  intros Hh H. split; [exact Hh|]. intros vr r d Hr p. destruct (H vr r p d Hr) as (p' & E).
  eexists. exists p'. unfold value_step, pmap, with_span. rewrite E. split; [reflexivity|].
  rewrite abs_apply_raw. reflexivity.
Qed.

(* ---- strings (C10) ------------------------------------------------------------------------------------------ *)
Lemma leaf_string ftext s : utf8_valid_b s = true -> leaf_ok ftext (SString s).
Proof.
  intro Hu. cbn [scalar_txt scalar_default_repr]. unfold default_string_repr.
  assert (Hw : write_string StDefault s = Some (as_default s (vmetrics_of s))) by reflexivity.
  pose proof (quote_headed_token s (vmetrics_of s) StDefault _ Hw) as (b & t' & Et & Hb).
  apply leaf_intro; cbn [scalar_txt scalar_default_repr]; unfold default_string_repr.
  - rewrite Et. exists b, t'. split; [reflexivity|].
    apply orb_true_iff in Hb as [Hb | Hb]; apply byte_eqb_eq in Hb; subst b; repeat split.
  - intros vr r p d Hr. eexists.
    pose proof (value_styles_rt s StDefault _ r p d Hu Hw (vterm_no_quote r Hr)) as Hs.
    unfold value_body.
    assert (Hp : context (peek any) (mkIn (as_default s (vmetrics_of s) ++ r) p d)
                 = Ok b (mkIn (as_default s (vmetrics_of s) ++ r) p d)).
    { rewrite Et. cbn [app]. apply context_ok. eapply peek_ok. apply any_cons. }
    rewrite (bind_ok _ _ _ _ _ Hp). rewrite Hb. cbv beta iota. rewrite (pmap_ok _ _ _ _ _ Hs). reflexivity.
Qed.

(* ---- booleans ------------------------------------------------------------------------------------------------- *)
Lemma leaf_bool ftext b : leaf_ok ftext (SBool b).
Proof.
  apply leaf_intro.
  - destruct b; cbn; eexists; eexists; (split; [reflexivity|repeat split]).
  - intros vr r p d _. destruct b; eexists; reflexivity.
Qed.

(* ---- integers (C11) --------------------------------------------------------------------------------------------- *)
Lemma nterm_us_stop r : nterm r ->
  match r with [] => True | b :: _ => in_class DIGIT b = false /\ byte_eqb underscore b = false end.
Proof. destruct r as [|b r]; [auto|]. intros (H1 & H2 & _). rewrite DIGIT_is_digit. auto. Qed.

(* [-] digits in front of a number terminator: dec_int reads exactly the token *)
Lemma dec_int_len_ctx sgn ds r :
  (sgn = [] \/ sgn = [dash]) -> (proper_digits ds \/ ds = [x30]) -> nterm r ->
  dec_int_len ((sgn ++ ds) ++ r) = LOk (length (sgn ++ ds)).
Proof.
  intros Hs Hds Hr.
  assert (EB : dec_body_len (ds ++ r) = LOk (length ds)).
  { destruct Hds as [[Hall (d0 & tl & -> & Hd)] | ->].
    - cbn [forallb] in Hall. apply andb_true_iff in Hall as [Hd0 Htl]. cbn [app dec_body_len].
      assert (E19 : in_class DIGIT1_9 d0 = true).
      { unfold in_class, DIGIT1_9. cbn [existsb fst snd]. unfold is_digit in Hd0. lia. }
      rewrite E19. rewrite (us_tail_app (in_class DIGIT) r tl).
      + rewrite (us_tail_stop _ r (nterm_us_stop r Hr)). cbn [length]. f_equal. lia.
      + apply wf_tail_all. apply (forallb_impl is_digit); [|exact Htl]. intros x Hx. rewrite DIGIT_is_digit. exact Hx.
    - reflexivity. }
  destruct Hs as [-> | ->]; cbn [app].
  - unfold dec_int_len. destruct ds as [|b s].
    { destruct Hds as [[_ (? & ? & ? & _)] | ?]; discriminate. }
    cbn [app]. assert (Hb : is_digit b = true).
    { destruct Hds as [[Hall _] | E]; [cbn [forallb] in Hall; apply andb_true_iff in Hall; tauto | injection E as -> _; reflexivity]. }
    unfold is_sign. destruct (digit_not_sign _ Hb) as [-> ->]. exact EB.
  - unfold dec_int_len. change (is_sign dash) with true. cbv iota. rewrite EB. reflexivity.
Qed.

Lemma token_shape z :
  exists sgn ds, write_i64 z = sgn ++ ds /\ (sgn = [] \/ sgn = [dash]) /\ (proper_digits ds \/ ds = [x30]) /\
                 int_of 10 (sgn ++ ds) = (if in_i64 z then TmOk z else int_of 10 (sgn ++ ds)).
Proof.
  destruct (in_i64 z) eqn:Hz.
  2:{ destruct (write_i64_shape z) as [[_ ->] | (ds & Hp & [(_ & -> & _) | (_ & -> & _)])].
      - exists [], [x30]. auto.
      - exists [], ds. auto.
      - exists [dash], ds. auto. }
  destruct (write_i64_shape z) as [[-> ->] | (ds & Hp & H)].
  - exists [], [x30]. repeat split; auto.
  - pose proof Hp as [Hall (d0 & tl & Hds & Hd)].
    assert (Hne : ds <> []) by (rewrite Hds; discriminate).
    assert (Hnu : forallb not_us ds = true) by (apply (forallb_impl is_digit); [apply digit_not_us | exact Hall]).
    destruct H as [(Hpos & Hw & Hv) | (Hneg & Hw & Hv)].
    + exists [], ds. rewrite Hw. repeat split; auto. cbn [app]. unfold int_of.
      rewrite (remove_us_id _ Hnu), (i64_from_str_pos _ Hall Hne) by (rewrite Hv; exact Hz). rewrite Hv. reflexivity.
    + exists [dash], ds. rewrite Hw. repeat split; auto. unfold int_of.
      assert (Hnu' : forallb not_us ([dash] ++ ds) = true) by (cbn [app forallb]; rewrite Hnu; reflexivity).
      rewrite (remove_us_id _ Hnu'). cbn [app].
      rewrite (i64_from_str_neg _ Hall Hne) by (rewrite Hv; exact Hz). rewrite Hv. reflexivity.
Qed.

Lemma integer_is_dec i : 
  match rest i with
  | b :: c :: _ => b = x30 -> c <> x78 /\ c <> x6f /\ c <> x62
  | _ => True
  end -> integer i = and_then dec_int dec_conv i.
Proof.
  intro H. unfold integer. fold dec_conv.
  destruct (rest i) as [|b [|c tl]]; [reflexivity| |].
  - cbn [firstn bytes_eqb]. rewrite !andb_false_r. reflexivity.
  - cbn [firstn bytes_eqb]. rewrite !andb_true_r.
    destruct (byte_eqb b x30) eqn:E0; [|reflexivity]. apply byte_eqb_eq in E0. destruct (H E0) as (H1 & H2 & H3).
    cbn [andb]. apply byte_eqb_neq in H1, H2, H3. rewrite H1, H2, H3. reflexivity.
Qed.

Lemma integer_ctx z r p d :
  in_i64 z = true -> nterm r ->
  integer (mkIn (write_i64 z ++ r) p d) = Ok z (after (write_i64 z) r p d).
Proof.
  intros Hz Hr. destruct (token_shape z) as (sgn & ds & Ht & Hs & Hds & Hconv). rewrite Hz in Hconv.
  rewrite Ht. set (i := mkIn ((sgn ++ ds) ++ r) p d).
  rewrite integer_is_dec.
  2:{ unfold i. cbn [rest]. destruct Hs as [-> | ->]; cbn [app].
      - destruct Hds as [[Hall (d0 & tl & -> & Hd)] | ->]; cbn [app].
        + destruct (tl ++ r); [exact I|]. intro E. subst d0. discriminate Hd.
        + destruct r as [|c r']; [exact I|]. intros _. destruct Hr as (_ & _ & _ & _ & _ & _ & H1 & H2 & H3 & _). auto.
      - destruct (ds ++ r); [exact I|]. intro E. discriminate E. }
  unfold and_then.
  pose proof (dec_int_spec i) as L. unfold i in L at 1. cbn [rest] in L.
  rewrite (dec_int_len_ctx sgn ds r Hs Hds Hr) in L. rewrite L.
  unfold i at 1. cbn [rest]. rewrite firstn_app_len. unfold dec_conv. rewrite Hconv.
  unfold i. rewrite advance_app. reflexivity.
Qed.

(* date_time and float backtrack on the integer token *)
Lemma int_not_dt_float z r p d : nterm r ->
  is_bt (date_time (mkIn (write_i64 z ++ r) p d)) /\ is_bt (float (mkIn (write_i64 z ++ r) p d)).
Proof.
  intro Hr. destruct (token_shape z) as (sgn & ds & Ht & Hs & Hds & _). rewrite Ht.
  assert (Hall : forallb is_digit ds = true /\ ds <> []).
  { destruct Hds as [[H (d0 & tl & -> & _)] | ->]; split; auto; discriminate. }
  destruct Hall as [Hall Hne].
  assert (Hnd : no_dt (ds ++ r)).
  { clear - Hall Hr. induction ds as [|b s IH]; cbn [app no_dt].
    - destruct r as [|b r']; [exact I|]. destruct Hr as (H1 & _ & _ & _ & H5 & H6 & _). cbn [no_dt]. rewrite H1. auto.
    - cbn [forallb] in Hall. apply andb_true_iff in Hall as [Hb Hs]. rewrite Hb. apply IH, Hs. }
  split.
  - apply date_time_bt0. cbn [rest]. destruct Hs as [-> | ->]; cbn [app].
    + unfold no_dt0. destruct ds as [|b s]; [contradiction|]. cbn [app]. cbn [forallb] in Hall.
      apply andb_true_iff in Hall as [Hb _]. rewrite Hb. cbn [app no_dt] in Hnd. rewrite Hb in Hnd. exact Hnd.
    + exact I.
  - apply float_bt.
    + apply (float__bt _ (length (sgn ++ ds))); cbn [rest]; [apply dec_int_len_ctx; assumption|].
      rewrite skipn_app_len. destruct r as [|b r']; [exact I|]. destruct Hr as (_ & _ & H3 & H4 & _). auto.
    + apply special_float_bt. cbn [rest].
      assert (G : match ds ++ r with [] => True | c :: _ => c <> x69 /\ c <> x6e end).
      { destruct ds as [|c s]; [contradiction|]. cbn [app]. cbn [forallb] in Hall. apply andb_true_iff in Hall as [Hc _].
        split; intro E; subst c; discriminate Hc. }
      destruct Hs as [-> | ->]; cbn [app].
      * destruct ds as [|c s]; [contradiction|]. cbn [app] in *. cbn [forallb] in Hall. apply andb_true_iff in Hall as [Hc _].
        unfold is_sign. destruct (digit_not_sign _ Hc) as [-> ->]. exact G.
      * exact G.
Qed.

Lemma write_i64_head z : exists b tl, write_i64 z = b :: tl /\ num_start b = true.
Proof.
  destruct (token_shape z) as (sgn & ds & Ht & Hs & Hds & _). rewrite Ht.
  destruct Hs as [-> | ->]; cbn [app].
  - destruct Hds as [[Hall (d0 & tl & -> & _)] | ->].
    + exists d0, tl. split; [reflexivity|]. cbn [forallb] in Hall. apply andb_true_iff in Hall as [Hd _].
      unfold num_start. rewrite Hd. reflexivity.
    + exists x30, []. split; reflexivity.
  - exists dash, ds. split; reflexivity.
Qed.

Lemma num_start_vstart b : num_start b = true -> vstart b.
Proof.
  unfold num_start, is_sign, is_digit, vstart. intro H. pose proof (b2n_lt b).
  unfold plus, dash in H. byten. repeat split; lia.
Qed.

Lemma leaf_int ftext z : in_i64 z = true -> leaf_ok ftext (SInt z).
Proof.
  intro Hz. destruct (write_i64_head z) as (b & tl & Eh & Hb).
  apply leaf_intro; cbn [scalar_txt scalar_default_repr].
  - exists b, tl. split; [exact Eh|apply num_start_vstart, Hb].
  - intros vr r p d Hr. pose proof (vterm_nterm r Hr) as Hn. eexists.
    rewrite (value_body_number vr _ b (tl ++ r)); [|cbn [rest]; rewrite Eh; reflexivity|exact Hb].
    destruct (int_not_dt_float z r p d Hn) as [H1 H2].
    apply number_arm_int; [exact H1|exact H2|apply integer_ctx; assumption].
Qed.

(* ---- floats (C11; std's digit generation is outside: the tree holds the decimal the text denotes) ---------------- *)
From TV Require Import Proofs.NumbersRT_Float.

(* zero_prefixable_int / frac / float_ in front of a number terminator *)
Lemma zpi_ctx i fp r :
  rest i = fp ++ r -> fp <> [] -> forallb is_digit fp = true -> nterm r ->
  zero_prefixable_int i = Ok fp (advance (length fp) i).
Proof.
  intros Hr Hne Hd Hn. unfold zero_prefixable_int, unchecked_utf8, digit.
  pose proof (digits_us_spec (in_class DIGIT) (in_class DIGIT) i) as H. rewrite Hr in H.
  destruct fp as [|f0 ftl]; [contradiction|]. cbn [app] in H.
  cbn [forallb] in Hd. apply andb_true_iff in Hd as [H0 Htl].
  rewrite DIGIT_is_digit, H0 in H.
  assert (Hcls : forallb (in_class DIGIT) ftl = true).
  { clear - Htl. induction ftl as [|c s IH]; [reflexivity|]. cbn [forallb] in *.
    apply andb_true_iff in Htl as [Hc Hs]. rewrite DIGIT_is_digit, Hc. apply IH, Hs. }
  rewrite (us_tail_app _ r _ (wf_tail_all _ _ Hcls)), (us_tail_stop _ r (nterm_us_stop r Hn)), Nat.add_0_r in H.
  rewrite (taken_ok _ _ _ _ H), Hr.
  change (S (length ftl)) with (length (f0 :: ftl)). rewrite firstn_app_len.
  rewrite (ascii_utf8 (f0 :: ftl)); [reflexivity|].
  apply digits_ascii. cbn [forallb]. rewrite H0, Htl. reflexivity.
Qed.

Lemma frac_ctx i fp r :
  rest i = dot :: fp ++ r -> fp <> [] -> forallb is_digit fp = true -> nterm r ->
  frac i = Ok (dot :: fp) (advance (S (length fp)) i).
Proof.
  intros Hr Hne Hd Hn. unfold frac, unchecked_utf8.
  assert (T : taken (byte_ dot ;;; context (cut_err zero_prefixable_int)) i
              = Ok (firstn (S (length fp)) (rest i)) (advance (S (length fp)) i)).
  { apply taken_ok with (a := fp). unfold bind, byte_, one_of. rewrite Hr.
    change (byte_eqb dot dot) with true. cbv iota.
    unfold context, cut_err.
    rewrite (zpi_ctx (advance 1 i) fp r); [rewrite advance_advance; reflexivity | | exact Hne | exact Hd | exact Hn].
    rewrite rest_advance, Hr. reflexivity. }
  rewrite T, Hr. change (S (length fp)) with (length (dot :: fp)).
  change (dot :: fp ++ r) with ((dot :: fp) ++ r). rewrite firstn_app_len.
  rewrite (ascii_utf8 (dot :: fp)); [reflexivity|].
  cbn [forallb]. rewrite (digits_ascii _ Hd). reflexivity.
Qed.

Lemma float__ctx pre fp r p d :
  dec_int_len ((pre ++ dot :: fp) ++ r) = LOk (length pre) ->
  fp <> [] -> forallb is_digit fp = true -> nterm r ->
  float_ (mkIn ((pre ++ dot :: fp) ++ r) p d) = Ok (pre ++ dot :: fp) (after (pre ++ dot :: fp) r p d).
Proof.
  intros EL Hne Hd Hn. set (t := pre ++ dot :: fp) in *. set (i := mkIn (t ++ r) p d).
  pose proof (dec_int_spec i) as L. change (rest i) with (t ++ r) in L. rewrite EL in L.
  pose proof (dec_int_len_ascii _ _ EL) as Hpre. unfold t in Hpre. rewrite <- !app_assoc, firstn_app_len in Hpre.
  unfold float_, unchecked_utf8.
  assert (T : taken (dec_int ;;; (pvoid exp <|> (frac ;;; pvoid (opt exp)))) i
              = Ok (firstn (length t) (rest i)) (advance (length t) i)).
  { apply taken_ok with (a := tt). unfold bind at 1. rewrite L.
    set (j := advance (length pre) i).
    assert (Hj : rest j = dot :: fp ++ r).
    { unfold j. rewrite rest_advance. change (rest i) with (t ++ r). unfold t. rewrite <- app_assoc.
      rewrite skipn_app_len. reflexivity. }
    unfold alt, pvoid at 1, pmap.
    rewrite exp_bt by (rewrite Hj; reflexivity).
    unfold bind. rewrite (frac_ctx j fp r Hj Hne Hd Hn).
    set (k := advance (S (length fp)) j).
    assert (Hk : rest k = r).
    { unfold k. rewrite rest_advance, Hj. change (S (length fp)) with (length (dot :: fp)).
      change (dot :: fp ++ r) with ((dot :: fp) ++ r). apply skipn_app_len. }
    unfold pvoid, pmap, opt. rewrite exp_bt.
    2:{ rewrite Hk. destruct r as [|b r']; [exact I|]. destruct Hn as (_ & _ & _ & He & _). exact He. }
    unfold k, j. rewrite advance_advance. f_equal. f_equal. unfold t. rewrite app_length. reflexivity. }
  rewrite T. change (rest i) with (t ++ r). rewrite firstn_app_len.
  rewrite (ascii_utf8 t).
  - unfold i. rewrite advance_app. reflexivity.
  - unfold t. rewrite forallb_app, Hpre. cbn [forallb]. rewrite (digits_ascii _ Hd). reflexivity.
Qed.

(* the shape of the positional text of a decimal *)
Lemma dec_value_zeros n s : dec_value (repeat x30 n ++ s) = dec_value s.
Proof.
  unfold dec_value. induction n as [|n IH]; [reflexivity|]. cbn [repeat app dec_value_acc]. exact IH.
Qed.

Lemma forallb_repeat {A} (f : A -> bool) x n : f x = true -> forallb f (repeat x n) = true.
Proof. intro H. induction n; [reflexivity|]. cbn [repeat forallb]. rewrite H. exact IHn. Qed.

Lemma forallb_skipn {A} (f : A -> bool) n l : forallb f l = true -> forallb f (skipn n l) = true.
Proof.
  revert l. induction n as [|n IH]; intros l H; [exact H|]. destruct l as [|x l]; [reflexivity|].
  cbn [forallb] in H. apply andb_true_iff in H as [_ H]. apply IH, H.
Qed.

Lemma float_text_dec neg m e : (e < 0)%Z ->
  exists ip fp, float_text (FDec neg m e) = (if neg then [dash] else []) ++ ip ++ dot :: fp /\
    (proper_digits ip \/ ip = [x30]) /\ forallb is_digit fp = true /\ fp <> [] /\
    dec_value (ip ++ fp) = m /\ (0 - Z.of_nat (length fp))%Z = e.
Proof.
  intro He. cbn [float_text]. destruct (write_N_good m) as (Gd & Gv & Gh).
  set (k := Z.to_nat (- e)). assert (Hk : 1 <= k) by lia.
  set (ds := write_N m) in *.
  set (ds' := repeat x30 (S k - length ds) ++ ds).
  assert (Hlen : length ds' = Nat.max (length ds) (S k)).
  { unfold ds'. rewrite app_length, repeat_length. lia. }
  assert (Hdig : forallb is_digit ds' = true).
  { unfold ds'. rewrite forallb_app, Gd, forallb_repeat; reflexivity. }
  exists (firstn (length ds' - k) ds'), (skipn (length ds' - k) ds').
  assert (Hfl : length (skipn (length ds' - k) ds') = k) by (rewrite skipn_length; lia).
  split; [reflexivity|]. split; [|split; [apply forallb_skipn, Hdig|split; [|split]]].
  - destruct (Nat.le_gt_cases (S k) (length ds)) as [Hge | Hlt].
    + left. assert (Epad : S k - length ds = 0) by lia.
      assert (Eds : ds' = ds) by (unfold ds'; rewrite Epad; reflexivity). rewrite Eds.
      assert (Hm : m <> 0%N).
      { intro E. unfold ds in Hge. rewrite E in Hge. change (write_N 0) with [x30] in Hge. cbn [length] in Hge. lia. }
      destruct (Gh Hm) as (d0 & tl & Eh & Hd0). fold ds in Eh. rewrite Eh.
      assert (Hpos : length (d0 :: tl) - k = S (length tl - k)).
      { rewrite Eh in Hge. cbn [length] in *. lia. }
      rewrite Hpos. cbn [firstn]. split.
      * rewrite Eh in Gd. cbn [forallb] in *. apply andb_true_iff in Gd as [G0 G1]. rewrite G0. cbn [andb].
        apply forallb_firstn, G1.
      * exists d0, (firstn (length tl - k) tl). split; [reflexivity|exact Hd0].
    + right. assert (Hn : S k - length ds = S (k - length ds)) by lia.
      rewrite Hlen. replace (Nat.max (length ds) (S k) - k) with 1 by lia.
      unfold ds'. rewrite Hn. reflexivity.
  - intro E. rewrite E in Hfl. cbn in Hfl. lia.
  - rewrite firstn_skipn. unfold ds'. rewrite dec_value_zeros. exact Gv.
  - rewrite Hfl. lia.
Qed.

Definition float_leaf (f : fval) : Prop :=
  match f with FDec _ m e => (e < 0)%Z /\ overflows m e = false | _ => True end.

Lemma no_dt_digits_dot ip rest_ : forallb is_digit ip = true -> no_dt (ip ++ dot :: rest_).
Proof.
  induction ip as [|b s IH]; cbn [app no_dt forallb]; intro H.
  - change (is_digit dot) with false. cbv iota. split; discriminate.
  - apply andb_true_iff in H as [Hb Hs]. rewrite Hb. apply IH, Hs.
Qed.

Lemma leaf_float f : float_leaf f -> leaf_ok float_text (SFloat f).
Proof.
  destruct f as [n|n|neg m e]; intro Hf.
  - (* nan / -nan *)
    apply leaf_intro; [destruct n; cbn; eexists; eexists; (split; [reflexivity|repeat split])|].
    intros vr r p d _. destruct n; eexists; reflexivity.
  - (* inf / -inf *)
    apply leaf_intro; [destruct n; cbn; eexists; eexists; (split; [reflexivity|repeat split])|].
    intros vr r p d _. destruct n; eexists; reflexivity.
  - destruct Hf as [He Ho].
    destruct (float_text_dec neg m e He) as (ip & fp & Et & Hip & Hfp & Hne & Hv & Hlen).
    destruct (ip_digits _ Hip) as [Hid Hine].
    assert (Hhead : exists b tl, float_text (FDec neg m e) = b :: tl /\ num_start b = true).
    { rewrite Et. destruct neg; cbn [app].
      - exists dash. eexists. split; reflexivity.
      - destruct ip as [|d0 tl]; [contradiction|]. exists d0. eexists. split; [reflexivity|].
        cbn [forallb] in Hid. apply andb_true_iff in Hid as [Hd _]. unfold num_start. rewrite Hd. reflexivity. }
    destruct Hhead as (b & tl & Eh & Hb).
    apply leaf_intro; cbn [scalar_txt].
    + exists b, tl. split; [exact Eh|apply num_start_vstart, Hb].
    + intros vr r p d Hr. pose proof (vterm_nterm r Hr) as Hn. eexists.
      rewrite (value_body_number vr _ b (tl ++ r)); [|cbn [rest]; rewrite Eh; reflexivity|exact Hb].
      apply number_arm_float.
      * apply date_time_bt0. cbn [rest]. rewrite Et. destruct neg; cbn [app]; [exact I|].
        unfold no_dt0. destruct ip as [|d0 tl0]; [contradiction|]. cbn [app].
        cbn [forallb] in Hid. apply andb_true_iff in Hid as [Hd Htl]. rewrite Hd.
        rewrite <- app_assoc. apply no_dt_digits_dot, Htl.
      * set (pre := (if neg then [dash] else []) ++ ip).
        assert (Et' : float_text (FDec neg m e) = pre ++ dot :: fp) by (rewrite Et; unfold pre; rewrite <- app_assoc; reflexivity).
        rewrite Et'.
        assert (EL : dec_int_len ((pre ++ dot :: fp) ++ r) = LOk (length pre)).
        { rewrite <- app_assoc. cbn [app]. apply (dec_int_len_plain neg ip (fp ++ r) Hip). }
        unfold float, context, alt, and_then. rewrite (float__ctx pre fp r p d EL Hne Hfp Hn).
        unfold float_of.
        assert (Hnu : forallb not_us (pre ++ dot :: fp) = true).
        { unfold pre. rewrite !forallb_app. cbn [forallb].
          rewrite (forallb_impl is_digit _ ip digit_not_us Hid), (forallb_impl is_digit _ fp digit_not_us Hfp).
          destruct neg; reflexivity. }
        rewrite (remove_us_id _ Hnu). unfold pre. rewrite <- app_assoc.
        rewrite (fdec_of_plain neg ip fp Hid Hine Hfp). rewrite Hv, Hlen, Ho. cbn [andb]. reflexivity.
Qed.
