(* Proofs/PrintBackDState.v — C03, class (d): what finalize_table / start_table / start_array_table /
   on_keyval (any key path) do to the multiset of print items of the tree. *)
From TV Require Import Base.Prelude.
From TV Require Import Model.Tree Model.Parse Model.Document.
From TV Require Import Proofs.PrintBackDoc
                       Proofs.PrintBackSecs Proofs.PrintBackDAll.
From TV Require Import Proofs.KvFacts.
From TV Require Import Proofs.DocumentOps.
Require Import Lia ZifyBool ZifyN ZifyNat Sorting.Sorted Sorting.Permutation.

Lemma perm_nil_r {A} (l1 l2 : list A) : Permutation (l1 ++ []) (l2 ++ []) -> Permutation l1 l2.
Proof. rewrite !app_nil_r. auto. Qed.

Section DState.
  Variable K : key -> Prop.

  Lemma finalize_all st st' ppath k :
    pop_key (st_path st) = Some (ppath, k) -> finalize_table st = COk st' ->
    uk2 K (st_root st) -> uk2 K (st_current st) -> K k -> Forall K ppath ->
    (st_is_array st = false -> exists par, reach (st_root st) ppath = Some par /\ kv_get (t_items par) (k_key k) = None) ->
    st' = finalized st (st_root st') /\ hframe (st_root st) (st_root st') /\ uk2 K (st_root st')
    /\ Permutation (ALLI (t_items (st_root st'))) (ALLI (t_items (st_root st)) ++ ALL (st_current st) (st_is_array st)).
  Proof.
    intros Ep Hf Hur Huc Hk Hpp Habs. rewrite finalize_table_eq, Ep in Hf.
    destruct (with_table_at (st_root st) ppath false ((if st_is_array st then f_fin_aot else f_fin_std) k (st_current st))) as [[root' u]| |] eqn:E; try discriminate.
    injection Hf as <-. cbn [finalized st_root]. split; [reflexivity|].
    destruct (wta_dctx false _ _ _ _ _ E) as (par & par' & Hfp & Hc).
    destruct (dctx_uk2 K _ _ _ _ _ _ Hc Hpp Hur) as [Hupar Hup']. apply uk2_eq in Hupar as (Hn & Hs).
    destruct (st_is_array st) eqn:Ea.
    - unfold f_fin_aot in Hfp. destruct (kv_get (t_items par) (k_key k)) as [[k0 it]|] eqn:G.
      + destruct it as [|v|sub|ts sp]; try discriminate. injection Hfp as <-.
        split; [apply (dctx_hframe _ _ _ _ _ _ Hc (hframe_set_items _ _))|]. split.
        * apply Hup'. destruct (uks2_get K _ _ _ _ Hs G) as [Hk0 Hts]. apply uki2_aot in Hts.
          apply uk2_set_items; [rewrite keys_set; exact Hn|].
          apply (uks2_set K _ _ _ _ _ Hs G); [exact Hk0|]. apply uki2_aot. apply Forall_app. split; [exact Hts|constructor; [exact Huc|constructor]].
        * apply perm_nil_r. rewrite <- app_assoc. apply (dctx_perm _ _ _ _ _ _ _ _ Hc (hframe_set_items _ _)). rewrite items_set_items. apply (ALLI_set _ _ _ _ _ _ _ G).
          rewrite !ALLit_aot, flat_map_app. cbn [flat_map]. rewrite !app_nil_r. reflexivity.
      + injection Hfp as <-.
        destruct (dctx_push K _ _ _ _ _ k _ Hc Hpp Hur G (fun _ => Hk) (proj2 (uki2_aot K _ _) (Forall_cons _ Huc (Forall_nil _)))) as (Hf' & Hu' & Hp').
        split; [exact Hf'|]. split; [exact Hu'|]. rewrite Hp', ALLit_aot. cbn [flat_map]. rewrite app_nil_r. reflexivity.
    - destruct (Habs eq_refl) as (par0 & Hr & Hg). destruct (dctx_reach _ _ _ _ _ _ Hc) as [_ Hpar]. rewrite (Hpar par0 Hr) in Hg.
      unfold f_fin_std in Hfp. rewrite Hg in Hfp. injection Hfp as <-.
      apply (dctx_push K _ _ _ _ _ k (ITable (st_current st)) Hc Hpp Hur Hg (fun _ => Hk) Huc).
  Qed.

  Lemma start_table_all st path dec sp st' ppath k :
    start_table st path dec sp = COk st' -> pop_key path = Some (ppath, k) -> uk2 K (st_root st) -> Forall K ppath -> t_items (st_current st) = [] ->
    exists T0,
      st' = open_table st (st_root st') (Tbl T0 decor_default false false None None) path dec sp false
      /\ uks2 K T0 /\ NoDup (map kk T0)
      /\ hframe (st_root st) (st_root st') /\ uk2 K (st_root st')
      /\ Permutation (ALLI (t_items (st_root st')) ++ ALLI T0) (ALLI (t_items (st_root st)))
      /\ exists par, reach (st_root st') ppath = Some par /\ kv_get (t_items par) (k_key k) = None.
  Proof.
    intros H Ep Hur Hpp Hcur.
    destruct (start_table_dctx _ _ _ _ _ H) as (_ & _ & ppath' & k' & root' & par & par' & taken & Ep' & Hc & -> & Htk).
    rewrite Ep in Ep'. injection Ep' as <- <-.
    destruct (dctx_uk2 K _ _ _ _ _ _ Hc Hpp Hur) as [Hupar Hup']. pose proof Hupar as Hupar0. apply uk2_eq in Hupar as (Hn & Hs).
    destruct (dctx_reach _ _ _ _ _ _ Hc) as [Hreach _].
    destruct taken as [t|]; [destruct Htk as ((k0 & G) & Eim & Edt & ->)|destruct Htk as (G & ->)].
    - destruct (uks2_get K _ _ _ _ Hs G) as [_ Hut]. cbn [uki2] in Hut. apply uk2_eq in Hut as (Hnt & Hst).
      destruct (nodup_remove _ _ _ _ Hn G) as [Hn' Hg'].
      exists (t_items t). cbn [open_table st_root]. split; [destruct t; reflexivity|].
      split; [exact Hst|]. split; [exact Hnt|]. split; [apply (dctx_hframe _ _ _ _ _ _ Hc (hframe_set_items _ _))|]. split.
      + apply Hup'. apply uk2_set_items; [exact Hn'|apply uks2_remove, Hs].
      + split.
        * rewrite <- (app_nil_r (ALLI (t_items (st_root st)))). apply (dctx_perm _ _ _ _ _ _ _ _ Hc (hframe_set_items _ _)). rewrite items_set_items, app_nil_r.
          destruct (kv_get_split _ _ _ _ G) as (A & B & EA & _ & _ & ER). rewrite ER, EA, !ALLI_app.
          change (ALLI ((k0, ITable t) :: B)) with (ALL t false ++ ALLI B). rewrite ALL_eq.
          assert (Hh : hdr t false = []) by (unfold hdr; rewrite Eim, Edt; reflexivity).
          rewrite Hh. cbn [app]. rewrite <- !app_assoc. apply Permutation_app_head, Permutation_app_comm.
        * exists (t_set_items par (kv_remove (t_items par) (k_key k))). split; [exact Hreach|]. rewrite items_set_items. exact Hg'.
    - exists []. cbn [st_root].
      split; [unfold open_table; rewrite Hcur; reflexivity|]. split; [constructor|]. split; [constructor|].
      split; [apply (dctx_hframe _ _ _ _ _ _ Hc (hframe_refl par))|]. split; [apply Hup', Hupar0|]. split.
      + cbn [ALLI flat_map]. rewrite <- (app_nil_r (ALLI (t_items (st_root st)))). apply (dctx_perm _ _ _ _ _ _ _ _ Hc (hframe_refl par)). reflexivity.
      + exists par. split; [exact Hreach|exact G].
  Qed.

  Lemma start_array_all st path dec sp st' ppath k :
    start_array_table st path dec sp = COk st' -> pop_key path = Some (ppath, k) -> uk2 K (st_root st) -> Forall K ppath -> K k ->
    st' = open_table st (st_root st') (st_current st) path dec sp true
    /\ hframe (st_root st) (st_root st') /\ uk2 K (st_root st')
    /\ Permutation (ALLI (t_items (st_root st'))) (ALLI (t_items (st_root st))).
  Proof.
    intros H Ep Hur Hpp Hk.
    destruct (start_array_table_dctx _ _ _ _ _ H) as (_ & _ & ppath' & k' & root' & par & par' & Ep' & Hc & -> & Hpar').
    rewrite Ep in Ep'. injection Ep' as <- <-.
    destruct (dctx_uk2 K _ _ _ _ _ _ Hc Hpp Hur) as [Hupar Hup']. pose proof Hupar as Hupar0. apply uk2_eq in Hupar as (Hn & Hs).
    cbn [open_table st_root]. split; [reflexivity|].
    destruct Hpar' as [[(k0 & ts & asp & G) ->]|[G ->]].
    - split; [apply (dctx_hframe _ _ _ _ _ _ Hc (hframe_refl par))|]. split; [apply Hup', Hupar0|].
      apply perm_nil_r. apply (dctx_perm _ _ _ _ _ _ _ _ Hc (hframe_refl par)). reflexivity.
    - destruct (dctx_push K _ _ _ _ _ k (IAot [] None) Hc Hpp Hur G (fun _ => Hk) I) as (Hf' & Hu' & Hp').
      split; [exact Hf'|]. split; [exact Hu'|]. rewrite Hp'. cbn [ALLit]. rewrite app_nil_r. reflexivity.
  Qed.

  (* ---- the span bookkeeping of dotted tables changes nothing that prints ----------------------------------------- *)
  Lemma ALLI_set_eq m k k0 it it' : kv_get m k = Some (k0, it) -> ALLit k0 it' = ALLit k0 it -> ALLI (kv_set m k it') = ALLI m.
  Proof.
    intros Hg He. destruct (kv_get_split m k k0 it Hg) as (A & B & -> & _ & Hs & _). rewrite Hs, !ALLI_app.
    change (ALLI ((k0, it') :: B)) with (ALLit k0 it' ++ ALLI B). change (ALLI ((k0, it) :: B)) with (ALLit k0 it ++ ALLI B). rewrite He. reflexivity.
  Qed.

  Lemma uk2_items t t' : t_items t' = t_items t -> uk2 K t -> uk2 K t'.
  Proof. intros E H. apply uk2_eq. rewrite E. apply uk2_eq, H. Qed.

  Lemma sds_props : forall path t ve, uk2 K t ->
    hframe t (set_dotted_spans t path ve) /\ ALLI (t_items (set_dotted_spans t path ve)) = ALLI (t_items t) /\ uk2 K (set_dotted_spans t path ve).
  Proof.
    induction path as [|k ptl IH]; intros t ve Hu; cbn [set_dotted_spans]; [split; [apply hframe_refl|split; [reflexivity|exact Hu]]|].
    destruct (kv_get (t_items t) (k_key k)) as [[k0 it]|] eqn:G; [|split; [apply hframe_refl|split; [reflexivity|exact Hu]]].
    destruct it as [|v|sub|ts asp]; try (split; [apply hframe_refl|split; [reflexivity|exact Hu]]).
    set (sub1 := if t_dotted sub then match key_span k, ve with Some ks, Some e => t_set_span sub (widen (t_span sub) ks e) | _, _ => sub end else sub).
    pose proof Hu as Hu0. apply uk2_eq in Hu as (Hn & Hs). destruct (uks2_get K _ _ _ _ Hs G) as [Hk0 Hsub]. cbn [uki2] in Hsub.
    assert (Hi1 : t_items sub1 = t_items sub).
    { unfold sub1. destruct (t_dotted sub); [|reflexivity]. destruct (key_span k), ve; try reflexivity. destruct sub; reflexivity. }
    assert (Hh1 : hdr sub1 false = hdr sub false).
    { unfold sub1. destruct (t_dotted sub) eqn:Ed; [|reflexivity]. destruct (key_span k), ve; try reflexivity.
      unfold hdr. destruct sub; cbn [t_set_span t_dotted] in *. rewrite Ed. reflexivity. }
    destruct (IH sub1 ve (uk2_items sub sub1 Hi1 Hsub)) as (Hf & Ha & Hu1).
    split; [apply hframe_set_items|]. rewrite items_set_items. split.
    - apply (ALLI_set_eq _ _ _ _ _ G). cbn [ALLit]. rewrite !ALL_eq, Ha, (hframe_hdr _ _ false Hf), Hh1, Hi1. reflexivity.
    - apply uk2_set_items; [rewrite keys_set; exact Hn|]. apply (uks2_set K _ _ _ _ _ Hs G); [intros _; apply Hk0; reflexivity|exact Hu1].
  Qed.

  (* ---- on_keyval, any key path: one more key/value item --------------------------------------------------------- *)
  Lemma on_keyval_all st path k v st' :
    on_keyval_sp st path k (IValue v) = COk st' -> uk2 K (st_current st) -> Forall K path ->
    st_root st' = st_root st /\ st_path st' = st_path st /\ st_position st' = st_position st /\ st_is_array st' = st_is_array st
    /\ st_trailing st' = None
    /\ hframe (st_current st) (st_current st') /\ uk2 K (st_current st')
    /\ Permutation (ALLI (t_items (st_current st'))) (ALLI (t_items (st_current st)) ++ [PL (with_prefix k (kv_prefix st k)) v]).
  Proof.
    intros H Hu HK. apply on_keyval_sp_inv in H as (st0 & E & ->). cbn [st_root st_path st_position st_is_array st_trailing st_current].
    apply on_keyval_dctx in E as (cur' & par & Hc & _ & G & ->). cbn [st_root st_path st_position st_is_array st_trailing st_current].
    change (kv_key st k) with (with_prefix k (kv_prefix st k)) in Hc. set (k' := with_prefix k (kv_prefix st k)) in *. set (cur0 := kv_cur st (IValue v)) in *.
    assert (Hi0 : t_items cur0 = t_items (st_current st)).
    { unfold cur0, kv_cur. destruct (t_span (st_current st)), (item_span (IValue v)); try reflexivity. apply items_set_span. }
    assert (Hf0 : hframe (st_current st) cur0).
    { unfold cur0, kv_cur. destruct (t_span (st_current st)) as [e|] eqn:Es; [|apply hframe_refl]. destruct (item_span (IValue v)); [|apply hframe_refl].
      destruct (st_current st). cbn [t_span t_set_span] in *. subst. repeat split. }
    destruct (dctx_push K _ _ _ _ _ k' (IValue v) Hc HK (uk2_items _ _ Hi0 Hu) G ltac:(discriminate) I) as (Hf1 & Hu' & Hp').
    destruct (sds_props path cur' (item_end (IValue v)) Hu') as (Hf2 & Ha2 & Hu2).
    repeat (split; [reflexivity|]). split.
    - destruct Hf0 as (A1 & A2 & A3 & A4 & A5), Hf1 as (B1 & B2 & B3 & B4 & B5), Hf2 as (C1 & C2 & C3 & C4 & C5).
      repeat split; congruence.
    - split; [exact Hu2|]. rewrite Ha2, Hp', Hi0. reflexivity.
  Qed.

  (* ---- the tree under construction, and the items it will print ------------------------------------------------------ *)
  Definition root_ok (r : tbl) (l : list pitem) : Prop :=
    uk2 K r /\ t_dotted r = false /\ t_decor r = decor_default /\ t_position r = None /\ Permutation (ALLI (t_items r)) l.

  (* the current table is not in the root yet: finalize_table will put it at st_path, and that place is free *)
  Definition tree_ok (st : pstate) (l : list pitem) : Prop :=
    uk2 K (st_root st) /\ uk2 K (st_current st) /\ t_dotted (st_current st) = false /\ t_implicit (st_current st) = false /\
    match pop_key (st_path st) with
    | None => st_root st = tbl_new /\ t_decor (st_current st) = decor_default /\ t_position (st_current st) = None
              /\ Permutation (ALLI (t_items (st_current st))) l
    | Some (ppath, k) =>
      K k /\ Forall K ppath
      /\ (st_is_array st = false -> exists par, reach (st_root st) ppath = Some par /\ kv_get (t_items par) (k_key k) = None)
      /\ t_dotted (st_root st) = false /\ t_decor (st_root st) = decor_default /\ t_position (st_root st) = None
      /\ Permutation (ALLI (t_items (st_root st)) ++ ALL (st_current st) (st_is_array st)) l
    end.

  Lemma tree_ok_new : tree_ok state_new [].
  Proof. split; [apply uk2_eq; split; constructor|]. split; [apply uk2_eq; split; constructor|]. repeat split; constructor. Qed.

  Lemma tree_ok_keyval st path k v st' l :
    on_keyval_sp st path k (IValue v) = COk st' -> Forall K path -> tree_ok st l ->
    tree_ok st' (l ++ [PL (with_prefix k (kv_prefix st k)) v]) /\ st_trailing st' = None.
  Proof.
    intros Eo HKp (Hur & Huc & Hdot & Himp & Hpath).
    destruct (on_keyval_all st path k v st' Eo Huc HKp) as (Er' & Ep' & _ & Ea' & Et' & Hfr & Huc' & Hperm).
    split; [|exact Et']. unfold tree_ok. rewrite Er', Ep', Ea'. pose proof Hfr as (F1 & F2 & F3 & F4 & F5).
    split; [exact Hur|]. split; [exact Huc'|]. split; [rewrite F3; exact Hdot|]. split; [rewrite F2; exact Himp|].
    destruct (pop_key (st_path st)) as [[ppath k0]|].
    - destruct Hpath as (P1 & P2 & P3 & P4 & P5 & P6 & P7). repeat (split; [assumption|]).
      rewrite ALL_eq, (hframe_hdr _ _ _ Hfr), Hperm, <- P7, ALL_eq. rewrite !app_assoc. reflexivity.
    - destruct Hpath as (P1 & P2 & P3 & P4). split; [exact P1|]. split; [rewrite F1; exact P2|]. split; [rewrite F4; exact P3|].
      rewrite Hperm, P4. reflexivity.
  Qed.

  Lemma tree_ok_finalize st stf l : finalize_table st = COk stf -> tree_ok st l ->
    stf = finalized st (st_root stf) /\ root_ok (st_root stf) l.
  Proof.
    intros Hf (Hur & Huc & Hdot & Himp & Hpath). destruct (pop_key (st_path st)) as [[ppath k]|] eqn:Ep.
    - destruct Hpath as (P1 & P2 & P3 & P4 & P5 & P6 & P7).
      destruct (finalize_all st stf ppath k Ep Hf Hur Huc P1 P2 P3) as (Estf & (F1 & F2 & F3 & F4 & F5) & Hur' & Hperm).
      split; [exact Estf|]. split; [exact Hur'|]. split; [rewrite F3; exact P4|]. split; [rewrite F1; exact P5|]. split; [rewrite F4; exact P6|].
      rewrite Hperm. exact P7.
    - destruct Hpath as (P1 & P2 & P3 & P4).
      rewrite finalize_table_eq, Ep, P1 in Hf. cbn [tbl_is_empty tbl_new t_items forallb] in Hf. injection Hf as <-.
      cbn [finalized st_root]. split; [reflexivity|]. repeat (split; [assumption|]). exact P4.
  Qed.

  (* a header: the current table goes into the root, and a new one is opened that prints the header *)
  Lemma tree_ok_header arr st kp tr sp st1 l :
    on_header arr st kp tr sp = COk st1 -> Forall K kp -> tree_ok st l ->
    tree_ok st1 (l ++ [PH (Some (fst sp)) (Some (st_position st + 1)%N) arr
                          (decor_new (match st_trailing st with Some x => raw_with_span x | None => REmpty end) (raw_with_span tr))])
    /\ st_trailing st1 = None.
  Proof.
    intros Hh HK Hl. unfold on_header in Hh. destruct kp as [|k0 kp0] eqn:Ekp; [discriminate|]. rewrite <- Ekp in *.
    assert (Hne : kp <> []) by (rewrite Ekp; discriminate). clear Ekp k0 kp0.
    destruct (finalize_table st) as [stf| |] eqn:Ef; try discriminate.
    destruct (tree_ok_finalize st stf l Ef Hl) as (Estf & Hur & Hrd & Hdec & Hpos & Hperm).
    unfold take_trailing in Hh. cbv zeta beta iota in Hh.
    set (st2 := mkState (st_root stf) None (st_position stf) (st_current stf) (st_is_array stf) (st_path stf)) in *.
    assert (Ecur2 : t_items (st_current st2) = []) by (unfold st2; rewrite Estf; reflexivity).
    assert (Etr : st_trailing stf = st_trailing st) by (rewrite Estf; reflexivity).
    assert (Epos : st_position st2 = st_position st) by (unfold st2; rewrite Estf; reflexivity).
    rewrite Etr in Hh. set (dec := decor_new _ _) in *.
    destruct (pop_key_nonempty kp Hne) as (ppath & k & Ep).
    pose proof (pop_key_some _ _ _ Ep) as Ekp. rewrite Ekp in HK. apply Forall_app in HK as [Hpp Hk]. inversion Hk as [|? ? Hk0 _]; subst.
    destruct arr.
    - destruct (start_array_all st2 _ dec sp st1 ppath k Hh Ep Hur Hpp Hk0) as (Est1 & (F1 & F2 & F3 & F4 & F5) & Hur1 & Hperm1).
      change (st_root st2) with (st_root stf) in *.
      rewrite Est1. unfold open_table, tree_ok. cbn [st_root st_path st_current st_trailing st_position st_is_array]. rewrite Ep, Ecur2, Epos.
      split; [|reflexivity].
      split; [exact Hur1|]. split; [apply uk2_eq; split; constructor|]. split; [reflexivity|]. split; [reflexivity|].
      split; [exact Hk0|]. split; [exact Hpp|]. split; [discriminate|]. split; [rewrite F3; exact Hrd|]. split; [rewrite F1; exact Hdec|]. split; [rewrite F4; exact Hpos|].
      rewrite ALL_eq. unfold hdr, span_start. cbn [t_dotted t_implicit t_span t_position t_decor t_items negb andb orb fst ALLI flat_map].
      rewrite app_nil_r, Hperm1, Hperm. reflexivity.
    - destruct (start_table_all st2 _ dec sp st1 ppath k Hh Ep Hur Hpp Ecur2)
        as (T0 & Est1 & HuT & HnT & (F1 & F2 & F3 & F4 & F5) & Hur1 & Hperm1 & Habs).
      change (st_root st2) with (st_root stf) in *.
      rewrite Est1. unfold open_table, tree_ok. cbn [st_root st_path st_current st_trailing st_position st_is_array t_items]. rewrite Ep, Epos.
      split; [|reflexivity].
      split; [exact Hur1|]. split; [apply uk2_eq; cbn [t_items]; split; assumption|]. split; [reflexivity|]. split; [reflexivity|].
      split; [exact Hk0|]. split; [exact Hpp|]. split; [intros _; exact Habs|]. split; [rewrite F3; exact Hrd|]. split; [rewrite F1; exact Hdec|]. split; [rewrite F4; exact Hpos|].
      rewrite ALL_eq. unfold hdr, span_start. cbn [t_dotted t_implicit t_span t_position t_decor t_items negb andb orb fst].
      rewrite <- Hperm, <- Hperm1. rewrite <- !app_assoc. apply Permutation_app_head. cbn [app]. apply Permutation_cons_append.
  Qed.
End DState.
