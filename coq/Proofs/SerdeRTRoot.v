(* Proofs/SerdeRTRoot.v — C07: the document-root rule of the five text / document routes.
     ep epp doc  toml_edit::ser::{to_string, to_string_pretty, to_document}   ser_edit_root
     tp tpp      toml::{to_string, to_string_pretty}                          ser_toml_root
   Both read back through the document deserializer, which on the level of the value tree is
   de_value applied to the root table. *)
From TV Require Import Base.Prelude Model.DatetimeStd Model.SerNum Spec.DatetimeSpec Spec.SerdeData Model.Ser Model.De
  Proofs.DatetimeEq Proofs.SerdeRTBase Proofs.SerdeRTEq Proofs.SerdeRT Proofs.SerdeRTErr.

Definition is_tab (x : tomlval) : bool := match x with VTab _ => true | _ => false end.

Lemma root_table_spec x : root_table x = if is_tab x then Ok x else Err (EUnsupportedType None).
Proof. destruct x; reflexivity. Qed.

(* which values ValueSerializer writes as a table *)
Lemma ser_value_shape t : forall v x, has_type_b t v = true -> ser_value t v = Ok x -> is_tab x = table_shaped t v.
Proof.
  induction t using ty_ind2 with (Q := fun _ => True); try exact I; intros v x Hty Hser.
  - destruct v; simpl in Hser; try discriminate Hser. injection Hser as <-. reflexivity.
  - destruct v; simpl in Hser; try discriminate Hser. unfold ser_int_value in Hser.
    destruct (ser_int w z); [injection Hser as <-; reflexivity|discriminate Hser].
  - destruct w; destruct v; simpl in Hser; try discriminate Hser; injection Hser as <-; reflexivity.
  - destruct v; simpl in Hser; try discriminate Hser. injection Hser as <-. reflexivity.
  - destruct v; simpl in Hser; try discriminate Hser. injection Hser as <-. reflexivity.
  - destruct v; simpl in Hser; try discriminate Hser. unfold ser_datetime in Hser.
    apply rmap_ok in Hser as (d' & _ & ->). reflexivity.
  - destruct v; simpl in Hser; discriminate Hser.
  - destruct v; simpl in Hser; discriminate Hser.
  - destruct v; try (simpl in Hser; discriminate Hser). rewrite sv_opt_some in Hser. rewrite ht_opt_some in Hty.
    apply (IHt v x Hty Hser).
  - destruct v; try (simpl in Hser; discriminate Hser). rewrite sv_seq in Hser. apply rmap_ok in Hser as (xs & _ & ->). reflexivity.
  - destruct v; try (simpl in Hser; discriminate Hser). rewrite sv_tuple in Hser. apply rmap_ok in Hser as (xs & _ & ->). reflexivity.
  - destruct v; try (simpl in Hser; discriminate Hser). rewrite sv_map in Hser. apply rmap_ok in Hser as (xs & _ & ->). reflexivity.
  - destruct v; try (simpl in Hser; discriminate Hser).
    rewrite ht_struct in Hty. apply andb_true_iff in Hty as [Hty _]. apply andb_true_iff in Hty as [Hpriv _].
    apply negb_true_iff in Hpriv. rewrite sv_struct, (private_not_dt n Hpriv) in Hser.
    apply rmap_ok in Hser as (xs & _ & ->). reflexivity.
  - destruct v; try (simpl in Hser; discriminate Hser). rewrite sv_newtype in Hser. rewrite ht_newtype in Hty.
    apply (IHt v x Hty Hser).
  - destruct v; try (simpl in Hser; discriminate Hser). rewrite sv_tuple_struct in Hser. apply rmap_ok in Hser as (xs & _ & ->). reflexivity.
  - destruct v as [| | | | | | | | | | | | | |i p]; try (simpl in Hser; discriminate Hser). rewrite sv_enum in Hser.
    destruct (pick_cases (ser_variant p) (Err EBadCase) vs i) as [([vn var] & Hn & E)|[_ E]]; rewrite E in Hser; [|discriminate].
    simpl. rewrite (pick_nth _ _ _ _ _ Hn). unfold ser_variant in Hser. simpl in Hser. simpl.
    destruct var.
    + destruct p; try discriminate Hser. injection Hser as <-. reflexivity.
    + apply rmap_ok in Hser as (y & _ & ->). reflexivity.
    + apply rmap_ok in Hser as (y & _ & ->). reflexivity.
    + apply rmap_ok in Hser as (y & _ & ->). reflexivity.
Qed.

(* ---- toml_edit's document routes ---- *)
Theorem edit_root_roundtrip t v out : has_type v t -> ser_edit_root t v = Ok out ->
  exists v', de_value t out = Ok v' /\ sval_eq v v'.
Proof.
  intros Hty H. apply edit_root_is_table in H as (es & _ & H). apply (roundtrip_value t v out Hty H).
Qed.

Theorem edit_root_errors t v e : has_type v t -> ser_edit_root t v = Err e ->
  unsupported CElem t v e \/ (e = EUnsupportedType None /\ table_shaped t v = false).
Proof.
  intros Hty H. unfold ser_edit_root in H. apply rbind_err in H as [H|(x & Hx & H)].
  - left. apply errors_documented; assumption.
  - right. rewrite root_table_spec in H. rewrite (ser_value_shape t v x Hty Hx) in H.
    destruct (table_shaped t v); [discriminate|]. injection H as <-. auto.
Qed.

Theorem edit_root_supported t v : has_type v t -> supported t v -> table_shaped t v = true ->
  exists out, ser_edit_root t v = Ok out.
Proof.
  intros Hty Hs Hsh. destruct (supported_ok t v Hty Hs) as (x & Hx). exists x.
  unfold ser_edit_root. rewrite Hx. simpl. rewrite root_table_spec, (ser_value_shape t v x Hty Hx), Hsh. reflexivity.
Qed.

(* ---- toml's document routes ---- *)
Lemma de_root_datetime k d : in_range d = true -> dt_kind_ok k d = true ->
  de_value (TDatetime k) (VTab [(DT_FIELD, VStr (display_datetime d))]) = Ok (SDt d).
Proof.
  intros Hr Hk. cbn [de_value de_datetime]. rewrite bytes_eqb_refl. unfold de_dt_str.
  rewrite (print_parse_std d Hr). simpl. unfold dt_kind_check. rewrite Hk. reflexivity.
Qed.

Theorem toml_root_roundtrip t v out : has_type v t -> ser_toml_root t v = Ok out ->
  exists v', de_value t out = Ok v' /\ sval_eq v v'.
Proof.
  intros Hty H. unfold has_type in Hty.
  destruct t; try (apply (edit_root_roundtrip _ _ _ Hty); destruct v; exact H).
  - (* an enum at the root (everything else goes to toml_edit's ValueSerializer, the struct's name included) *)
    destruct v as [| | | | | | | | | | | | | |i p]; try (apply (edit_root_roundtrip _ _ _ Hty); exact H).
    simpl in H.
    match type of H with pick ?f ?d vs i = _ => destruct (pick_cases f d vs i) as [([vn var] & Hn & E)|[_ E]]; rewrite E in H end;
      [|discriminate].
    simpl in H. destruct var; try discriminate H.
    + apply (edit_root_roundtrip _ _ _ Hty). exact H.
    + apply (edit_root_roundtrip _ _ _ Hty). exact H.
    + destruct p; try discriminate H. destruct (zipM ser_value ts vs0); discriminate H.
Qed.

Theorem toml_root_errors t v e : has_type v t -> ser_toml_root t v = Err e ->
  unsupported CElem t v e
  \/ (e = EUnsupportedType None /\ toml_root_shaped t v = false)
  \/ (exists n, e = EUnsupportedType (Some n) /\ root_struct_variant t v n).
Proof.
  intros Hty H.
  assert (Hedit : ser_toml_root t v = ser_edit_root t v -> toml_root_shaped t v = table_shaped t v ->
                  unsupported CElem t v e \/ (e = EUnsupportedType None /\ toml_root_shaped t v = false)
                  \/ (exists n, e = EUnsupportedType (Some n) /\ root_struct_variant t v n)).
  { intros E1 E2. rewrite E1 in H. destruct (edit_root_errors t v e Hty H) as [U|[-> S]]; [left; exact U|].
    right; left. rewrite E2. auto. }
  unfold has_type in Hty.
  destruct t; try (apply Hedit; destruct v; reflexivity).
  - destruct v as [| | | | | | | | | | | | | |i p]; try (apply Hedit; reflexivity).
    pose proof Hty as Hty'. rewrite ht_enum in Hty'. apply andb_true_iff in Hty' as [_ Hp].
    simpl in H.
    match type of H with pick ?f ?d vs i = _ => destruct (pick_cases f d vs i) as [([vn var] & Hn & E)|[Hn E]]; rewrite E in H end.
    + simpl in H. rewrite (pick_nth _ _ _ _ _ Hn) in Hp. simpl in Hp. destruct var.
      * destruct (edit_root_errors _ _ e Hty H) as [U|[-> S]]; [left; exact U|]. right; left. split; [reflexivity|].
        simpl. rewrite (pick_nth _ _ _ _ _ Hn). reflexivity.
      * destruct (edit_root_errors _ _ e Hty H) as [U|[-> S]]; [left; exact U|].
        exfalso. simpl in S. rewrite (pick_nth _ _ _ _ _ Hn) in S. discriminate S.
      * destruct p; try (simpl in Hp; discriminate Hp). rewrite htv_tuple in Hp.
        apply rbind_err in H as [H|(xs & _ & H)].
        -- left. pose proof (Forall2_length' _ _ _ (proj1 (all2b_Forall2 _ _ _) Hp)) as Hl.
           destruct (zipM_err _ _ _ _ Hl H) as (j & t & v & H1 & H2 & H3).
           eapply u_variant; [exact Hn|]. eapply uv_tuple; [exact H1|exact H2|].
           apply errors_documented; [exact (all2b_nth _ _ _ _ _ _ Hp H1 H2)|exact H3].
        -- injection H as <-. right; left. split; [reflexivity|]. simpl. rewrite (pick_nth _ _ _ _ _ Hn). reflexivity.
      * injection H as <-. right; right. exists name. split; [reflexivity|].
        exists vs, i, p, vn, fs. auto.
    + rewrite (pick_none _ _ _ _ Hn) in Hp. discriminate Hp.
Qed.

Theorem toml_root_supported t v : has_type v t -> supported t v -> toml_root_shaped t v = true ->
  exists out, ser_toml_root t v = Ok out.
Proof.
  intros Hty Hs Hsh. destruct (ser_toml_root t v) as [x|e] eqn:E; [exists x; reflexivity|exfalso].
  destruct (toml_root_errors t v e Hty E) as [U|[[_ S]|(n & _ & (vs & i & p & vn & fs & -> & -> & Hn))]].
  - apply (Hs e U).
  - congruence.
  - simpl in Hsh. rewrite (pick_nth _ _ _ _ _ Hn) in Hsh. discriminate Hsh.
Qed.
