(* Proofs/DefsEquivTest.v — C09: Spec/Defs.v against the model on small statement sequences.
   This is a test, not the theorem: the bounds and the comparison `check` were written before the
   proofs and are kept beside them.  The two agreement statements are instances of the theorem
   (DefsEquivMain.v: `check` holds of every sequence whose values are integers); the census, which
   shows that the bounds reach all three verdicts, is computed.
   Bound: all statement sequences of length <= 3 whose statements are [p], [[p]] or p = <i>
   with p a path of length <= 2 over the keys {a, b} (18 statements, 6175 sequences). *)
From TV Require Import Proofs.DefsEquivSpec Proofs.DefsEquivKv Proofs.DefsEquivMain.
From TV Require Import Base.Prelude Model.Tree Model.Parse Spec.Defs.
From TV Require Import Proofs.DefsEquivBase.

Definition veqb (a b : value) : bool :=
  match a, b with
  | VScalar (SInt x) _ _, VScalar (SInt y) _ _ => Z.eqb x y
  | _, _ => false
  end.

Definition kind_eqb (a b : kind) : bool :=
  match a, b with KSuper, KSuper | KHeader, KHeader | KDotted, KDotted => true | _, _ => false end.

Fixpoint node_eqb (a b : node value) {struct a} : bool :=
  match a, b with
  | NVal x, NVal y => veqb x y
  | NTab ka ia, NTab kb ib =>
    kind_eqb ka kb &&
    (fix go (l : list (bytes * node value)) (r : list (bytes * node value)) {struct l} : bool :=
       match l, r with
       | [], [] => true
       | (k1, n1) :: l', (k2, n2) :: r' => bytes_eqb k1 k2 && node_eqb n1 n2 && go l' r'
       | _, _ => false
       end) ia ib
  | NAot ea, NAot eb =>
    (fix goe (l : list (list (bytes * node value))) (r : list (list (bytes * node value))) {struct l} : bool :=
       match l, r with
       | [], [] => true
       | x :: l', y :: r' =>
         (fix go (l : list (bytes * node value)) (r : list (bytes * node value)) {struct l} : bool :=
            match l, r with
            | [], [] => true
            | (k1, n1) :: l', (k2, n2) :: r' => bytes_eqb k1 k2 && node_eqb n1 n2 && go l' r'
            | _, _ => false
            end) x y && goe l' r'
       | _, _ => false
       end) ea eb
  | _, _ => false
  end.
Definition stree_eqb (a b : stree value) : bool := node_eqb (NTab KHeader a) (NTab KHeader b).

(* a statement shape: form (0 = [p], 1 = [[p]], 2 = p = v) and path *)
Definition paths : list (list byte) :=
  [[x61]; [x62]; [x61; x61]; [x61; x62]; [x62; x61]; [x62; x62]].
Definition shapes : list (nat * list byte) :=
  flat_map (fun p => [(0, p); (1, p); (2, p)]) paths.

Definition mk_stmt (i : Z) (sh : nat * list byte) : mstmt :=
  let '(form, p) := sh in
  match pop_key (map tkey p) with
  | None => MKeyVal [] (tkey x61) (tval i)          (* unreachable: paths are non-empty *)
  | Some (pre, k) =>
    match form with
    | 0 => MHeader false pre k (0, 0)%N (0, 0)%N
    | 1 => MHeader true pre k (0, 0)%N (0, 0)%N
    | _ => MKeyVal pre k (tval i)
    end
  end.

Fixpoint number (i : Z) (l : list (nat * list byte)) : list mstmt :=
  match l with [] => [] | sh :: tl => mk_stmt i sh :: number (i + 1) tl end.

Fixpoint seqs (n : nat) : list (list (nat * list byte)) :=      (* exactly n statements *)
  match n with
  | O => [[]]
  | S m => flat_map (fun tl => map (fun sh => sh :: tl) shapes) (seqs m)
  end.
Definition all_seqs : list (list mstmt) :=
  map (number 1) (seqs 0 ++ seqs 1 ++ seqs 2 ++ seqs 3).

(* spec Invalid => model CErr; spec Valid t => model COk r with abs r = t; the code-policy run
   is never Undecided and agrees with the strict run wherever that one decides *)
Definition check (ms : list mstmt) : bool :=
  let l := map erase ms in
  (match spec_run l with
   | Invalid => match run_state ms with CErr _ => true | _ => false end
   | Valid t => match run_state ms with COk r => stree_eqb (abs_tbl r) t | _ => false end
   | Undecided => true
   end) &&
  (match code_run l with
   | Invalid => match run_state ms with CErr _ => true | _ => false end
   | Valid t => match run_state ms with COk r => stree_eqb (abs_tbl r) t | _ => false end
   | Undecided => false
   end).

Example all_seqs_count : length all_seqs = 6175.
Proof. vm_compute. reflexivity. Qed.

(* `check` compares a tree with itself wherever spec and model both deliver one; the comparison
   only knows integer leaves, and the leaves of the tree are values of the statements *)
Definition self_eq (v : value) : Prop := veqb v v = true.

Lemma stree_eqb_cons k n tl k' n' tl' :
  stree_eqb ((k, n) :: tl) ((k', n') :: tl') = bytes_eqb k k' && node_eqb n n' && stree_eqb tl tl'.
Proof. reflexivity. Qed.

Lemma node_eqb_tab ka a kb b : node_eqb (NTab ka a) (NTab kb b) = kind_eqb ka kb && stree_eqb a b.
Proof. reflexivity. Qed.

Lemma node_eqb_aot_cons x l y r :
  node_eqb (NAot (x :: l)) (NAot (y :: r)) = stree_eqb x y && node_eqb (NAot l) (NAot r).
Proof. reflexivity. Qed.

Lemma stree_eqb_refl_of (t : stree value) :
  Forall (fun kn => leaves self_eq (snd kn) -> node_eqb (snd kn) (snd kn) = true) t ->
  tleaves self_eq t -> stree_eqb t t = true.
Proof.
  induction 1 as [|[k n] tl Hn _ IH]; intro Ht; [reflexivity|]. inversion Ht; subst. cbn [snd] in Hn.
  rewrite stree_eqb_cons, bytes_eqb_refl, Hn, IH by assumption. reflexivity.
Qed.

Lemma node_eqb_refl n : leaves self_eq n -> node_eqb n n = true.
Proof.
  induction n as [v|kd items IH|es IH] using node_ind'; intro H; inversion H as [? Hv|? ? Hi|? He]; subst.
  - exact Hv.
  - rewrite node_eqb_tab, (stree_eqb_refl_of _ IH Hi). destruct kd; reflexivity.
  - clear H. induction IH as [|e tl IHe _ IHtl]; [reflexivity|]. inversion He; subst.
    rewrite node_eqb_aot_cons, (stree_eqb_refl_of _ IHe), IHtl by assumption. reflexivity.
Qed.

Lemma stree_eqb_refl t : tleaves self_eq t -> stree_eqb t t = true.
Proof. intro H. apply (node_eqb_refl (NTab KHeader t)). constructor. exact H. Qed.

Theorem check_integers ms : Forall (stmt_leaf self_eq) (map erase ms) -> check ms = true.
Proof.
  intro Hl. unfold check. apply andb_true_iff. split.
  - destruct (spec_run (map erase ms)) as [t| |] eqn:E; [| |reflexivity].
    + destruct (valid_merged ms t E) as (r & Hr & Ha). rewrite Hr, Ha.
      exact (stree_eqb_refl t (run_leaves self_eq true _ t Hl E)).
    + destruct (invalid_rejected ms E) as [c Hc]. rewrite Hc. reflexivity.
  - pose proof (code_verdict ms) as H. destruct (code_run (map erase ms)) as [t| |] eqn:E; [| |contradiction].
    + destruct H as (r & Hr & Ha). rewrite Hr, Ha.
      exact (stree_eqb_refl t (run_leaves self_eq false _ t Hl E)).
    + destruct H as [c Hc]. rewrite Hc. reflexivity.
Qed.

Lemma number_integers l : forall i, Forall (stmt_leaf self_eq) (map erase (number i l)).
Proof.
  induction l as [|[form p] tl IH]; intro i; cbn [number map]; constructor; [|apply IH].
  unfold mk_stmt. destruct (pop_key (map tkey p)) as [[pre k]|]; [destruct form as [|[|form]]|];
    cbn [erase stmt_leaf]; try exact I; apply Z.eqb_refl.
Qed.

Lemma check_numbered ss : forallb check (map (number 1) ss) = true.
Proof.
  apply forallb_forall. intros ms H. apply in_map_iff in H as (l & <- & _).
  apply check_integers, number_integers.
Qed.

Example spec_agrees_with_model_on_all_small_sequences : forallb check all_seqs = true.
Proof. apply check_numbered. Qed.

(* how many of them are in U1 / valid / invalid (so the test is visibly not vacuous) *)
Definition count (f : list mstmt -> bool) : nat := length (filter f all_seqs).
Definition census (l : list (list mstmt)) : nat * nat * nat :=
  (length (filter (fun ms => u1_b (map erase ms)) l),
   length (filter (fun ms => match spec_run (map erase ms) with Valid _ => true | _ => false end) l),
   length (filter (fun ms => match spec_run (map erase ms) with Invalid => true | _ => false end) l)).

(* The same count along the tree of prefixes: every statement is applied once to each state that
   the shorter sequences reach, and a prefix that is refused or undecided settles all its
   extensions at once.  `seqsG` is `seqs` / `seqs3` over a given list of shapes. *)
Definition add3 (a b : nat * nat * nat) : nat * nat * nat :=
  let '(a1, a2, a3) := a in let '(b1, b2, b3) := b in (a1 + b1, a2 + b2, a3 + b3).
Definition tsum {A} (f : A -> nat * nat * nat) (l : list A) : nat * nat * nat :=
  fold_right (fun a acc => add3 (f a) acc) (0, 0, 0) l.
(* k sequences with the outcome r *)
Definition vec {A} (r : res A) (k : nat) : nat * nat * nat :=
  match r with RUndecided => (k, 0, 0) | ROk _ => (0, k, 0) | RInvalid => (0, 0, k) end.

Fixpoint seqsG (shs : list (nat * list byte)) (n : nat) : list (list (nat * list byte)) :=
  match n with
  | O => [[]]
  | S m => flat_map (fun tl => map (fun sh => sh :: tl) shs) (seqsG shs m)
  end.

Fixpoint explore (shs : list (nat * list byte)) (n : nat) (i : Z) (S : sstate value) : nat * nat * nat :=
  match n with
  | O => (0, 1, 0)
  | S m =>
    tsum (fun sh => match spec_step true S (erase (mk_stmt i sh)) with
                    | ROk S' => explore shs m (i + 1) S'
                    | r => vec r (length (seqsG shs m))
                    end) shs
  end.

Lemma add3_comm a b : add3 a b = add3 b a.
Proof. destruct a as [[a1 a2] a3], b as [[b1 b2] b3]. cbn [add3]. rewrite (Nat.add_comm a1), (Nat.add_comm a2), (Nat.add_comm a3). reflexivity. Qed.

Lemma add3_assoc a b c : add3 a (add3 b c) = add3 (add3 a b) c.
Proof. destruct a as [[a1 a2] a3], b as [[b1 b2] b3], c as [[c1 c2] c3]. cbn [add3]. rewrite !Nat.add_assoc. reflexivity. Qed.

Lemma add3_0_l a : add3 (0, 0, 0) a = a.
Proof. destruct a as [[a1 a2] a3]. reflexivity. Qed.

Lemma tsum_cons {A} (f : A -> nat * nat * nat) a l : tsum f (a :: l) = add3 (f a) (tsum f l).
Proof. reflexivity. Qed.

Lemma tsum_ext {A} (f g : A -> nat * nat * nat) l : (forall a, f a = g a) -> tsum f l = tsum g l.
Proof. intro H. induction l as [|a tl IH]; [reflexivity|]. rewrite !tsum_cons, H, IH. reflexivity. Qed.

Lemma tsum_app {A} (f : A -> nat * nat * nat) l1 l2 : tsum f (l1 ++ l2) = add3 (tsum f l1) (tsum f l2).
Proof.
  induction l1 as [|a tl IH]; cbn [app]; [rewrite add3_0_l; reflexivity|].
  rewrite !tsum_cons, IH. apply add3_assoc.
Qed.

Lemma tsum_map {A B} (f : B -> nat * nat * nat) (g : A -> B) l : tsum f (map g l) = tsum (fun a => f (g a)) l.
Proof. induction l as [|a tl IH]; [reflexivity|]. cbn [map]. rewrite !tsum_cons, IH. reflexivity. Qed.

Lemma tsum_flat_map {A B} (f : B -> nat * nat * nat) (g : A -> list B) l :
  tsum f (flat_map g l) = tsum (fun a => tsum f (g a)) l.
Proof.
  induction l as [|a tl IH]; [reflexivity|]. cbn [flat_map]. rewrite tsum_app, IH. reflexivity.
Qed.

Lemma tsum_add {A} (f g : A -> nat * nat * nat) l : tsum (fun a => add3 (f a) (g a)) l = add3 (tsum f l) (tsum g l).
Proof.
  induction l as [|a tl IH]; [reflexivity|]. rewrite !tsum_cons, IH, <- !add3_assoc. f_equal. rewrite !add3_assoc. f_equal. apply add3_comm.
Qed.

Lemma tsum_swap {A B} (f : A -> B -> nat * nat * nat) la lb :
  tsum (fun a => tsum (f a) lb) la = tsum (fun b => tsum (fun a => f a b) la) lb.
Proof.
  induction la as [|a tl IH].
  - induction lb as [|b tlb IHb]; [reflexivity|].
    rewrite tsum_cons, <- IHb. reflexivity.
  - rewrite tsum_cons, IH, <- tsum_add. reflexivity.
Qed.

Lemma tsum_vec {A B} (r : res B) (l : list A) : tsum (fun _ => vec r 1) l = vec r (length l).
Proof. induction l as [|a tl IH]; [destruct r; reflexivity|]. rewrite tsum_cons, IH. destruct r; reflexivity. Qed.

Lemma explore_spec shs n : forall i S,
  explore shs n i S = tsum (fun ss => vec (spec_fold true S (map erase (number i ss))) 1) (seqsG shs n).
Proof.
  induction n as [|m IH]; intros i S; [reflexivity|]. cbn [explore seqsG].
  rewrite tsum_flat_map.
  rewrite (tsum_ext _ _ _ (fun tl => tsum_map _ (fun sh => sh :: tl) shs)), tsum_swap.
  apply tsum_ext. intro sh. cbn [number map spec_fold].
  destruct (spec_step true S (erase (mk_stmt i sh))) as [S'| |]; cbn [rbind].
  - apply IH.
  - symmetry. apply (tsum_vec RInvalid).
  - symmetry. apply (tsum_vec RUndecided).
Qed.

Lemma census_tsum l : census l = tsum (fun ms => vec (spec_fold true sstate0 (map erase ms)) 1) l.
Proof.
  unfold census. induction l as [|ms tl IH]; [reflexivity|]. rewrite tsum_cons, <- IH. cbn [filter].
  unfold u1_b, spec_run, run. destruct (spec_fold true sstate0 (map erase ms)) as [[t c]| |]; reflexivity.
Qed.

Lemma census_explore shs :
  census (map (number 1) (seqsG shs 0 ++ seqsG shs 1 ++ seqsG shs 2 ++ seqsG shs 3))
  = add3 (explore shs 0 1 sstate0)
      (add3 (explore shs 1 1 sstate0) (add3 (explore shs 2 1 sstate0) (explore shs 3 1 sstate0))).
Proof. rewrite census_tsum, tsum_map, !tsum_app, !explore_spec. reflexivity. Qed.

Lemma seqs_eq n : seqs n = seqsG shapes n.
Proof. induction n as [|m IH]; [reflexivity|]. cbn [seqs seqsG]. rewrite IH. reflexivity. Qed.

Example census_small : census all_seqs = (0, 3447, 2728).      (* U1 needs a path of length 3 *)
Proof. unfold all_seqs. rewrite !seqs_eq, census_explore. vm_compute. reflexivity. Qed.

(* second bound, reaching class U1: paths of length <= 3 over {a, b} (42 statements),
   sequences of length <= 3 (75895 sequences) *)
Definition paths3 : list (list byte) :=
  paths ++ flat_map (fun p => [x61 :: p; x62 :: p]) [[x61; x61]; [x61; x62]; [x62; x61]; [x62; x62]].
Definition shapes3 : list (nat * list byte) :=
  flat_map (fun p => [(0, p); (1, p); (2, p)]) paths3.
Fixpoint seqs3 (n : nat) : list (list (nat * list byte)) :=
  match n with
  | O => [[]]
  | S m => flat_map (fun tl => map (fun sh => sh :: tl) shapes3) (seqs3 m)
  end.
Definition all_seqs3 : list (list mstmt) :=
  map (number 1) (seqs3 0 ++ seqs3 1 ++ seqs3 2 ++ seqs3 3).

Lemma seqs3_eq n : seqs3 n = seqsG shapes3 n.
Proof. induction n as [|m IH]; [reflexivity|]. cbn [seqs3 seqsG]. rewrite IH. reflexivity. Qed.

Example spec_agrees_with_model_on_all_small_sequences3 : forallb check all_seqs3 = true.
Proof. apply check_numbered. Qed.
Definition censusN (l : list (list mstmt)) : N * (N * N * N) :=
  let '(a, b, c) := census l in (N.of_nat (length l), (N.of_nat a, N.of_nat b, N.of_nat c)).
Example census3 : censusN all_seqs3 = (75895, (96, 52447, 23352))%N.   (* total, (U1, valid, invalid) *)
Proof. unfold censusN, all_seqs3. rewrite map_length, !seqs3_eq, census_explore. vm_compute. reflexivity. Qed.
