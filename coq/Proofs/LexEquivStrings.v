(* Proofs/LexEquivStrings.v — L1 for the single-line strings and keys: escapes (with \u / \U),
   basic-string (the parser checks UTF-8 per maximal unescaped chunk; the grammar asks for a
   well-formed token), literal-string, simple-key. *)
From TV Require Import Base.Prelude Base.Utf8 Base.Winnow Gen.Consts Spec.Abnf Spec.Lex.
From TV Require Import Model.Strings Model.Tree Model.Parse.
From TV Require Import Proofs.ConstsOk Proofs.LexEquivBase Proofs.LexEquivTrivia Proofs.LexEquivInt.
Require Import Lia ZifyBool ZifyN ZifyNat.

(* ---- from_utf8 ------------------------------------------------------------------------------------ *)
Lemma from_utf8_ok (p : parser bytes) i b i' :
  p i = Ok b i' -> utf8_valid_b b = true -> from_utf8 p i = Ok b i'.
Proof. intros H V. unfold from_utf8. apply (try_map_ok _ _ _ b); [exact H|]. rewrite V. reflexivity. Qed.

Lemma from_utf8_inv (p : parser bytes) i b i' :
  from_utf8 p i = Ok b i' -> p i = Ok b i' /\ utf8_valid_b b = true.
Proof.
  unfold from_utf8. intro H. apply try_map_inv in H as (a & H & E).
  destruct (utf8_valid_b a) eqn:V; [|discriminate]. injection E as <-. auto.
Qed.

Lemma from_utf8_fails (p : parser bytes) i : fails p i -> fails (from_utf8 p) i.
Proof. apply try_map_fails. Qed.

(* an invalid chunk is a failure without commitment *)
Lemma from_utf8_invalid (p : parser bytes) i b i' :
  p i = Ok b i' -> utf8_valid_b b = false -> fails (from_utf8 p) i.
Proof. intros H V. unfold fails, from_utf8, try_map. rewrite H, V. eauto. Qed.

(* ---- the accumulate-chunks loop -------------------------------------------------------------------------- *)
Lemma chunks_f_runs (p : parser bytes) i l i' : runs p i l i' ->
  forall fuel acc, length (rest i) < fuel -> chunks_f fuel p acc i = Ok (acc ++ concat l) i'.
Proof.
  induction 1 as [i (e & j & F)|i a i1 l i2 E Hlt R IH]; intros fuel acc Hf;
    (destruct fuel as [|fuel]; [lia|]); cbn [chunks_f].
  - rewrite F. cbn [concat]. rewrite app_nil_r. reflexivity.
  - rewrite E. destruct (Nat.eqb (length (rest i1)) (length (rest i))) eqn:Q.
    + apply Nat.eqb_eq in Q. lia.
    + rewrite IH by lia. cbn [concat]. rewrite app_assoc. reflexivity.
Qed.

Lemma chunks_runs (p : parser bytes) i l i' : runs p i l i' -> chunks p i = Ok (concat l) i'.
Proof. intro R. unfold chunks. rewrite (chunks_f_runs p i l i' R) by lia. reflexivity. Qed.

Lemma chunks_f_inv (p : parser bytes) : shrinking p ->
  forall fuel acc i v i', chunks_f fuel p acc i = Ok v i' -> exists l, v = acc ++ concat l /\ runs p i l i'.
Proof.
  intros Hs. induction fuel as [|fuel IH]; intros acc i v i' H; cbn [chunks_f] in H; [discriminate|].
  destruct (p i) as [a i1|e j| |] eqn:E; try discriminate.
  - destruct (Nat.eqb (length (rest i1)) (length (rest i))) eqn:Q; [discriminate|].
    apply Nat.eqb_neq in Q. pose proof (Hs _ _ _ E) as Hle.
    apply IH in H as (l & -> & R). exists (a :: l). split.
    + cbn [concat]. rewrite app_assoc. reflexivity.
    + eapply runs_cons; [exact E|lia|exact R].
  - injection H as <- <-. exists []. split; [cbn [concat]; rewrite app_nil_r; reflexivity|].
    apply runs_nil. exists e, j. exact E.
Qed.

Lemma chunks_inv (p : parser bytes) i v i' : shrinking p ->
  chunks p i = Ok v i' -> exists l, v = concat l /\ runs p i l i'.
Proof. intros Hs H. unfold chunks in H. apply (chunks_f_inv p Hs) in H as (l & -> & R). exists l. auto. Qed.

(* ---- hexadecimal escapes ------------------------------------------------------------------------------------ *)

Lemma hex_val_digit_of b : Abnf.hexdig b = true -> hex_val b = digit_of b.
Proof.
  unfold hex_val, digit_of. cls. intro H.
  destruct ((48 <=? b2n b) && (b2n b <=? 57))%N eqn:D.
  { replace (b2n b <=? 57)%N with true by lia. reflexivity. }
  replace (b2n b <=? 57)%N with false by lia.
  destruct ((65 <=? b2n b) && (b2n b <=? 70))%N eqn:U.
  { replace (b2n b <=? 70)%N with true by lia. reflexivity. }
  replace (b2n b <=? 70)%N with false by lia. reflexivity.
Qed.

Lemma hex_value_acc_horner h : forallb Abnf.hexdig h = true -> forall acc,
  hex_value_acc acc h = fold_left (fun a b => (a * 16 + digit_of b)%N) h acc.
Proof.
  induction h as [|d h IH]; intros H acc; [reflexivity|].
  cbn [forallb] in H. apply andb_true_iff in H as [Hd Hh]. cbn [hex_value_acc fold_left].
  rewrite IH by exact Hh. rewrite (hex_val_digit_of d Hd). reflexivity.
Qed.

Lemma hex_value_horner h : forallb Abnf.hexdig h = true -> hex_value h = horner 16 h.
Proof. intro H. unfold hex_value, horner. apply hex_value_acc_horner. exact H. Qed.

Lemma horner16_bound h : forallb Abnf.hexdig h = true -> (horner 16 h < 16 ^ N.of_nat (length h))%N.
Proof.
  unfold horner. assert (G : forall h acc k, forallb Abnf.hexdig h = true -> (acc < 16 ^ k)%N ->
    (fold_left (fun a b => (a * 16 + digit_of b)%N) h acc < 16 ^ (k + N.of_nat (length h)))%N).
  { clear h. induction h as [|d h IH]; intros acc k H Hacc.
    - cbn [fold_left length]. rewrite N.add_0_r. exact Hacc.
    - cbn [forallb] in H. apply andb_true_iff in H as [Hd Hh]. cbn [fold_left length].
      replace (k + N.of_nat (S (length h)))%N with ((k + 1) + N.of_nat (length h))%N by lia.
      apply IH; [exact Hh|]. rewrite N.pow_add_r. change (16 ^ 1)%N with 16%N.
      pose proof (proj2 (radix_class_16 d Hd)). lia. }
  intro H. apply (G h 0%N 0%N H). reflexivity.
Qed.

Lemma is_hexdig_ascii_ok b : is_hexdig_ascii b = Abnf.hexdig b.
Proof. reflexivity. Qed.

Lemma hexdig_ascii b : Abnf.hexdig b = true -> ascii b = true.
Proof. intro H. apply (digit_class_hexdig b H). Qed.

Lemma u32_from_hex_ok h : h <> [] -> length h <= 8 -> forallb Abnf.hexdig h = true ->
  u32_from_hex h = Some (horner 16 h).
Proof.
  intros Hne Hl Hh. unfold u32_from_hex. destruct h as [|b t]; [congruence|].
  rewrite (forallb_ext_eq _ _ _ is_hexdig_ascii_ok), Hh. rewrite (hex_value_horner _ Hh).
  pose proof (horner16_bound _ Hh) as B.
  assert (P : (16 ^ N.of_nat (length (b :: t)) <= 2 ^ 32)%N).
  { change (2 ^ 32)%N with (16 ^ 8)%N. apply N.pow_le_mono_r; lia. }
  destruct (horner 16 (b :: t) <? 2 ^ 32)%N eqn:L; [reflexivity|lia].
Qed.

Lemma u32_from_hex_inv h v : u32_from_hex h = Some v -> forallb Abnf.hexdig h = true /\ v = horner 16 h.
Proof.
  unfold u32_from_hex. destruct h as [|b t]; [discriminate|].
  rewrite (forallb_ext_eq _ _ _ is_hexdig_ascii_ok). destruct (forallb Abnf.hexdig (b :: t)) eqn:Hh; [|discriminate].
  rewrite (hex_value_horner _ Hh). destruct (_ <? _)%N; [|discriminate]. intro E. injection E as <-. auto.
Qed.

Lemma hexescape_complete k i h r :
  (k = 4 \/ k = 8) -> length h = k -> all Abnf.hexdig h -> is_scalar (horner 16 h) = true ->
  rest i = h ++ r -> hexescape k i = Ok (utf8_encode (horner 16 h)) (adv h i).
Proof.
  intros Hk Hl Hh Hsc H. unfold hexescape.
  apply (try_map_ok _ _ _ (horner 16 h)); [|rewrite Hsc; reflexivity].
  apply (verify_map_ok _ _ _ h); [|apply u32_from_hex_ok; [destruct h; [simpl in Hl; lia|discriminate]|lia|exact Hh]].
  apply unchecked_ok; [|apply utf8_ascii; apply (forallb_impl Abnf.hexdig); [apply hexdig_ascii|exact Hh]].
  apply verify_ok; [|apply Nat.eqb_eq; exact Hl].
  unfold take_while_mn. rewrite H. rewrite (take_upto_exact _ k h r Hl).
  - cbn [Nat.ltb Nat.leb]. reflexivity.
  - rewrite (forallb_ext_eq _ _ _ HEXDIG_ok). exact Hh.
Qed.

Lemma hexescape_sound k i s i' : hexescape k i = Ok s i' ->
  exists h, length h = k /\ all Abnf.hexdig h /\ is_scalar (horner 16 h) = true
            /\ s = utf8_encode (horner 16 h) /\ splits i h i'.
Proof.
  unfold hexescape. intro H. apply try_map_inv in H as (v & H & Ev).
  destruct (is_scalar v) eqn:Hsc; [|discriminate]. injection Ev as <-.
  apply verify_map_inv in H as (h & H & Eh). apply u32_from_hex_inv in Eh as [Hh ->].
  apply unchecked_inv in H as [H _]. apply verify_inv in H as [H Hl]. apply Nat.eqb_eq in Hl.
  unfold take_while_mn in H. cbn [Nat.ltb Nat.leb] in H. injection H as Eg Ei.
  destruct (take_upto_prefix (in_class HEXDIG) k (rest i)) as (r & E). rewrite Eg in E, Ei. subst i'.
  exists h. split; [exact Hl|]. split; [exact Hh|]. split; [exact Hsc|]. split; [reflexivity|].
  apply (splits_adv i h r E).
Qed.

(* ---- escaped = escape escape-seq-char -------------------------------------------------------------------------------- *)
(* a fact about every entry of a table holds of whatever a lookup returns *)
Lemma assoc_byte_Forall {A} (P : byte -> A -> Prop) l : Forall (fun kv => P (fst kv) (snd kv)) l ->
  forall b v, assoc_byte l b = Some v -> P b v.
Proof.
  induction 1 as [|[k w] l Hk _ IH]; intros b v; cbn [assoc_byte]; [discriminate|].
  destruct (byte_eqb k b) eqn:E; [|apply IH]. apply byte_eqb_eq in E. subst k.
  intro H. injection H as <-. exact Hk.
Qed.

Lemma escape_simple_facts b n : escape_simple b = Some n ->
  ascii b = true /\ is_scalar n = true
  /\ wschar b = false /\ byte_eqb b x0a = false /\ byte_eqb b x0d = false.
Proof. rewrite <- ESCAPE_SIMPLE_ok. revert b n. apply assoc_byte_Forall. repeat (apply Forall_cons; [cbn; auto 10|]). apply Forall_nil. Qed.

Lemma escape_hex_facts b k : escape_hex b = Some k ->
  (ascii b = true /\ escape_simple b = None /\ (k = 4 \/ k = 8))
  /\ wschar b = false /\ byte_eqb b x0a = false /\ byte_eqb b x0d = false.
Proof. rewrite <- ESCAPE_HEX_ok. revert b k. apply assoc_byte_Forall. repeat (apply Forall_cons; [cbn; auto 10|]). apply Forall_nil. Qed.

Lemma escaped_ascii e s : escaped_tok e s -> forallb ascii e = true /\ exists t, e = x5c :: t.
Proof.
  intros [b n Hb | b k h Hb Hl Hh Hsc].
  - cbn [forallb]. rewrite (proj1 (escape_simple_facts b n Hb)). split; [reflexivity|eauto].
  - destruct (escape_hex_facts b k Hb) as ((Ab & _) & _). cbn [forallb]. rewrite Ab.
    rewrite (forallb_impl Abnf.hexdig ascii h hexdig_ascii Hh). split; [reflexivity|eauto].
Qed.

Lemma escaped_complete i e s r : escaped_tok e s -> rest i = e ++ r -> escaped i = Ok s (adv e i).
Proof.
  intros [b n Hb | b k h Hb Hl Hh Hsc] H; unfold escaped, preceded, ESCAPE; cbn [app] in H.
  - rewrite (bind_ok _ _ _ _ _ (byte_ok x5c i _ H)). pose proof (rest_adv [x5c] _ _ H) as R.
    unfold escape_seq_char. rewrite (bind_ok _ _ _ _ _ (any_ok _ b r R)).
    rewrite ESCAPE_SIMPLE_ok, Hb. unfold ret. rewrite adv_adv. reflexivity.
  - rewrite (bind_ok _ _ _ _ _ (byte_ok x5c i _ H)). pose proof (rest_adv [x5c] _ _ H) as R.
    unfold escape_seq_char. rewrite (bind_ok _ _ _ _ _ (any_ok _ b (h ++ r) R)).
    destruct (escape_hex_facts b k Hb) as ((_ & Es & Hk) & _).
    rewrite ESCAPE_SIMPLE_ok, Es, ESCAPE_HEX_ok, Hb.
    pose proof (rest_adv [b] _ _ R) as R2.
    rewrite (context_ok _ _ _ _ (cut_err_ok _ _ _ _ (hexescape_complete k _ h r Hk Hl Hh Hsc R2))).
    rewrite !adv_adv. reflexivity.
Qed.

Lemma escaped_sound i s i' : escaped i = Ok s i' -> exists e, escaped_tok e s /\ splits i e i'.
Proof.
  unfold escaped, preceded, ESCAPE. intro H. apply bind_inv in H as (x & i1 & H1 & H).
  apply byte_inv in H1 as [_ S1]. unfold escape_seq_char in H. apply bind_inv in H as (b & i2 & H2 & H).
  apply any_inv in H2. rewrite ESCAPE_SIMPLE_ok, ESCAPE_HEX_ok in H.
  destruct (escape_simple b) as [n|] eqn:Es.
  - apply ret_inv in H as [-> ->]. exists [x5c; b]. split; [apply esc_simple; exact Es|].
    apply (splits_trans _ _ _ _ _ S1 H2).
  - destruct (escape_hex b) as [k|] eqn:Eh.
    + apply context_inv, cut_err_inv, hexescape_sound in H as (h & Hl & Hh & Hsc & -> & S3).
      exists (x5c :: b :: h). split; [apply (esc_hex b k h Eh Hl Hh Hsc)|].
      apply (splits_trans _ _ _ _ _ S1 (splits_trans _ _ _ _ _ H2 S3)).
    + unfold context, cut_err, fail in H. discriminate.
Qed.

Lemma escaped_fails i : stops (byte_eqb x5c) (rest i) -> fails escaped i.
Proof. intro H. unfold escaped, preceded, ESCAPE. apply bind_fails, byte_fails. exact H. Qed.

Lemma escaped_shrinking : shrinking escaped.
Proof. apply splits_shrinking. intros i a i' H. apply escaped_sound in H as (e & _ & S). eauto. Qed.

(* ---- unescaped runs ------------------------------------------------------------------------------------------------------ *)
(* a run of class bytes is a sequence of one-byte items of any language that contains them *)
Lemma star_run (cl : byte -> bool) (L : lang) a :
  (forall b, cl b = true -> L [b] [b]) -> all cl a -> star L a a.
Proof.
  intros HL. induction a as [|b a IH]; intro Ha; [apply star_nil|].
  unfold all in Ha. cbn [forallb] in Ha. apply andb_true_iff in Ha as [Hb Ha].
  change (b :: a) with ([b] ++ a). apply star_cons; [apply HL; exact Hb|apply IH; exact Ha].
Qed.

Lemma star_one_inv cl t v : star (one cl) t v -> v = t /\ all cl t.
Proof.
  induction 1 as [|t1 v1 t2 v2 (b & Hb & -> & ->) _ (-> & IH)]; [split; reflexivity|].
  split; [reflexivity|]. unfold all. cbn [app forallb]. rewrite Hb. exact IH.
Qed.

Lemma basic_unescaped_nonascii b : basic_unescaped b = false -> ascii b = true.
Proof. pose proof (b2n_lt b). unfold ascii. cls. lia. Qed.
Lemma literal_char_nonascii b : literal_char b = false -> ascii b = true.
Proof. pose proof (b2n_lt b). unfold ascii. cls. lia. Qed.

Lemma stops_ascii_head cl r : (forall b, cl b = false -> ascii b = true) -> stops cl r -> ascii_head r.
Proof. intros H. destruct r as [|b r]; [auto|]. cbn [stops ascii_head]. apply H. Qed.

(* ---- basic-string = quotation-mark *basic-char quotation-mark ---------------------------------------------------------------- *)
(* a maximal non-empty run of bytes of a class, checked as UTF-8: the unescaped chunks of both basic kinds *)
Definition class_chunk (g : bclass) : parser bytes := from_utf8 (take_while1 (in_class g)).

Section ClassChunk.
  (* g: the class as the code tests it; c: the class of the grammar *)
  Variables (g : bclass) (c : byte -> bool).
  Hypothesis Hg : forall b, in_class g b = c b.

  Lemma class_chunk_ok i a r :
    rest i = a ++ r -> a <> [] -> all c a -> stops c r -> utf8_valid_b a = true ->
    class_chunk g i = Ok a (adv a i).
  Proof.
    intros H Hne Ha Hr V. unfold class_chunk. apply from_utf8_ok; [|exact V].
    unfold take_while1. rewrite (take_while_ext _ _ _ _ _ Hg).
    apply (take_while_ok 1 _ i a r H Ha Hr). destruct a; [congruence|simpl; lia].
  Qed.

  Lemma class_chunk_inv i a i' : class_chunk g i = Ok a i' ->
    splits i a i' /\ a <> [] /\ all c a /\ stops c (rest i') /\ utf8_valid_b a = true.
  Proof.
    unfold class_chunk. intro H. apply from_utf8_inv in H as [H V].
    unfold take_while1 in H. rewrite (take_while_ext _ _ _ _ _ Hg) in H.
    apply take_while_inv in H as (S & Ha & Hs & Hl). split; [exact S|].
    split; [destruct a; [simpl in Hl; lia|discriminate]|auto].
  Qed.

  Lemma class_chunk_fails i : stops c (rest i) -> fails (class_chunk g) i.
  Proof.
    intro H. unfold class_chunk. apply from_utf8_fails, take_while1_fails.
    destruct (rest i); [exact I|]. cbn [stops] in *. rewrite Hg. exact H.
  Qed.
End ClassChunk.

Definition unesc_chunk : parser bytes := class_chunk BASIC_UNESCAPED.

Lemma basic_chars_unfold i : basic_chars i = (unesc_chunk <|> escaped) i.
Proof. reflexivity. Qed.

Lemma basic_chars_inv i c i' : basic_chars i = Ok c i' ->
  exists t, star basic_char t c /\ splits i t i' /\ utf8_valid_b t = true /\ t <> [].
Proof.
  rewrite basic_chars_unfold. intro H. apply alt_inv in H as [H | [_ H]].
  - apply (class_chunk_inv _ _ BASIC_UNESCAPED_ok) in H as (S & Hne & Ha & _ & V). exists c. split; [|auto].
    apply (star_run basic_unescaped); [|exact Ha]. intros b Hb. left. exists b. auto.
  - apply escaped_sound in H as (e & He & S). destruct (escaped_ascii e c He) as (Ae & t & ->).
    exists (x5c :: t). split; [apply star_one; right; exact He|]. split; [exact S|].
    split; [apply utf8_ascii; exact Ae|discriminate].
Qed.

Lemma basic_chars_shrinking : shrinking basic_chars.
Proof. apply splits_shrinking. intros i a i' H. apply basic_chars_inv in H as (t & _ & S & _). eauto. Qed.

Lemma runs_basic_sound i l i' : runs basic_chars i l i' ->
  exists body, star basic_char body (concat l) /\ splits i body i' /\ utf8_valid_b body = true.
Proof.
  induction 1 as [i F|i a i1 l i2 E _ _ (body & St & S2 & V2)].
  - exists []. split; [apply star_nil|]. split; [apply splits_nil|reflexivity].
  - apply basic_chars_inv in E as (t & St1 & S1 & V1 & _). exists (t ++ body). cbn [concat].
    split; [apply star_app; assumption|]. split; [apply (splits_trans _ _ _ _ _ S1 S2)|].
    apply utf8_join; assumption.
Qed.

(* the parser's view of a body: maximal unescaped chunks and escapes *)
Inductive chunked : bytes -> bytes -> Prop :=
| ch_nil : chunked [] []
| ch_run a t v : a <> [] -> all basic_unescaped a -> stops basic_unescaped t -> chunked t v ->
    chunked (a ++ t) (a ++ v)
| ch_esc e s t v : escaped_tok e s -> chunked t v -> chunked (e ++ t) (s ++ v).

Lemma chunked_cons b t v : basic_unescaped b = true -> chunked t v -> chunked (b :: t) (b :: v).
Proof.
  intros Hb H. destruct H as [|a t v Hne Ha Hs H|e s t v He H].
  - apply (ch_run [b] [] []); [discriminate|unfold all; cbn [forallb]; rewrite Hb; reflexivity|exact I|apply ch_nil].
  - apply (ch_run (b :: a) t v); [discriminate| |exact Hs|exact H].
    unfold all in *. cbn [forallb]. rewrite Hb. exact Ha.
  - apply (ch_run [b] (e ++ t) (s ++ v)); [discriminate|unfold all; cbn [forallb]; rewrite Hb; reflexivity| |].
    + destruct (escaped_ascii e s He) as (_ & t' & ->). reflexivity.
    + apply ch_esc; assumption.
Qed.

Lemma star_chunked body v : star basic_char body v -> chunked body v.
Proof.
  induction 1 as [|t1 v1 t2 v2 [(b & Hb & -> & ->) | He] _ IH]; [apply ch_nil| |].
  - apply chunked_cons; assumption.
  - apply ch_esc; assumption.
Qed.

Lemma quote_stops_basic r : stops basic_unescaped (x22 :: r).
Proof. reflexivity. Qed.

Lemma basic_chars_fails_quote i r : rest i = x22 :: r -> fails basic_chars i.
Proof.
  intro H. unfold fails. rewrite basic_chars_unfold. apply alt_fails.
  - apply (class_chunk_fails _ _ BASIC_UNESCAPED_ok). rewrite H. reflexivity.
  - apply escaped_fails. rewrite H. reflexivity.
Qed.

Lemma stops_app_quote (cl : byte -> bool) t r : cl x22 = false -> stops cl t -> stops cl (t ++ x22 :: r).
Proof. intros Hq. destruct t; [intros _; exact Hq|auto]. Qed.

Lemma runs_basic_complete body v : chunked body v -> forall i r,
  utf8_valid_b body = true -> rest i = body ++ x22 :: r ->
  exists l, runs basic_chars i l (adv body i) /\ concat l = v.
Proof.
  induction 1 as [|a t v Hne Ha Hs _ IH|e s t v He _ IH]; intros i r V H.
  - exists []. rewrite adv_nil. split; [|reflexivity]. apply runs_nil. apply (basic_chars_fails_quote i r H).
  - rewrite <- app_assoc in H.
    destruct (utf8_cut a t (stops_ascii_head _ _ basic_unescaped_nonascii Hs) V) as [Va Vt].
    assert (E : basic_chars i = Ok a (adv a i)).
    { rewrite basic_chars_unfold. apply alt_ok.
      apply (class_chunk_ok _ _ BASIC_UNESCAPED_ok i a _ H Hne Ha); [|exact Va]. apply stops_app_quote; [reflexivity|exact Hs]. }
    destruct (IH (adv a i) r Vt (rest_adv _ _ _ H)) as (l & Rl & El).
    exists (a :: l). split; [|cbn [concat]; rewrite El; reflexivity].
    apply (runs_step _ i a _ a l t H Hne E Rl).
  - rewrite <- app_assoc in H. destruct (escaped_ascii e s He) as (Ae & t' & Ee).
    rewrite (utf8_app_ascii e t Ae) in V.
    assert (E : basic_chars i = Ok s (adv e i)).
    { rewrite basic_chars_unfold. rewrite alt_fails_l; [apply (escaped_complete i e s _ He H)|].
      apply (class_chunk_fails _ _ BASIC_UNESCAPED_ok). rewrite H, Ee. reflexivity. }
    destruct (IH (adv e i) r V (rest_adv _ _ _ H)) as (l & Rl & El).
    exists (s :: l). split; [|cbn [concat]; rewrite El; reflexivity].
    apply (runs_step _ i e _ s l t H); [rewrite Ee; discriminate|exact E|exact Rl].
Qed.

Theorem basic_string_sound i v i' : basic_string i = Ok v i' ->
  exists t, basic_string_tok t v /\ splits i t i'.
Proof.
  unfold basic_string, QUOTATION_MARK. intro H. apply bind_inv in H as (x & i1 & H1 & H).
  apply byte_inv in H1 as [_ S1]. apply bind_inv in H as (c & i2 & H2 & H).
  apply (chunks_inv _ _ _ _ basic_chars_shrinking) in H2 as (l & -> & R).
  apply runs_basic_sound in R as (body & St & S2 & V).
  apply bind_inv in H as (y & i3 & H3 & H). apply context_inv, cut_err_inv, byte_inv in H3 as [_ S3].
  apply ret_inv in H as [-> ->].
  exists ([x22] ++ body ++ [x22]). split.
  - split; [|exists body; auto]. cbn [app]. rewrite utf8_cons_ascii by reflexivity.
    apply utf8_join; [exact V|reflexivity].
  - apply (splits_trans _ _ _ _ _ S1 (splits_trans _ _ _ _ _ S2 S3)).
Qed.

Theorem basic_string_complete i t v r : basic_string_tok t v -> rest i = t ++ r ->
  basic_string i = Ok v (adv t i).
Proof.
  intros (V & body & -> & St) H. unfold basic_string, QUOTATION_MARK.
  cbn [app] in V. rewrite utf8_cons_ascii in V by reflexivity.
  destruct (utf8_split body x22 [] eq_refl V) as [Vb _].
  rewrite <- !app_assoc in H. cbn [app] in H.
  rewrite (bind_ok _ _ _ _ _ (byte_ok x22 i _ H)). pose proof (rest_adv [x22] _ _ H) as R.
  destruct (runs_basic_complete body v (star_chunked _ _ St) _ r Vb R) as (l & Rl & <-).
  rewrite (bind_ok _ _ _ _ _ (chunks_runs _ _ _ _ Rl)).
  pose proof (rest_adv body _ _ R) as R2.
  rewrite (bind_ok _ _ _ _ _ (context_ok _ _ _ _ (cut_err_ok _ _ _ _ (byte_ok x22 _ r R2)))).
  unfold ret. rewrite !adv_adv. reflexivity.
Qed.

Lemma basic_string_fails i : stops (byte_eqb x22) (rest i) -> fails basic_string i.
Proof. intro H. unfold basic_string, QUOTATION_MARK. apply bind_fails, byte_fails. exact H. Qed.

(* a committed failure inside a basic string: the input has no basic-string prefix *)
Corollary basic_string_cut_only i e j : basic_string i = Cut e j ->
  forall t v r, rest i = t ++ r -> ~ basic_string_tok t v.
Proof. intros H t v r E Ht. rewrite (basic_string_complete i t v r Ht E) in H. discriminate. Qed.

(* ---- literal-string = apostrophe *literal-char apostrophe ---------------------------------------------------------------------- *)
Definition literal_inner : parser bytes :=
  byte_ APOSTROPHE ;;; c <- cut_err (take_while0 (in_class LITERAL_CHAR)) ;; cut_err (byte_ APOSTROPHE) ;;; ret c.

Lemma literal_string_unfold i : literal_string i = context (from_utf8 literal_inner) i.
Proof. reflexivity. Qed.

Theorem literal_string_sound i v i' : literal_string i = Ok v i' ->
  exists t, literal_string_tok t v /\ splits i t i'.
Proof.
  rewrite literal_string_unfold. intro H. apply context_inv, from_utf8_inv in H as [H V].
  unfold literal_inner, APOSTROPHE in H. apply bind_inv in H as (x & i1 & H1 & H). apply byte_inv in H1 as [_ S1].
  apply bind_inv in H as (c & i2 & H2 & H). apply cut_err_inv in H2.
  unfold take_while0 in H2. rewrite (take_while_ext _ _ _ _ _ LITERAL_CHAR_ok) in H2.
  apply take_while_inv in H2 as (S2 & Hc & _ & _).
  apply bind_inv in H as (y & i3 & H3 & H). apply cut_err_inv, byte_inv in H3 as [_ S3].
  apply ret_inv in H as [-> ->].
  exists ([x27] ++ c ++ [x27]). split.
  - split.
    + cbn [app]. rewrite utf8_cons_ascii by reflexivity. apply utf8_join; [exact V|reflexivity].
    + exists c. split; [reflexivity|]. apply (star_run literal_char); [|exact Hc]. intros b Hb. exists b. auto.
  - apply (splits_trans _ _ _ _ _ S1 (splits_trans _ _ _ _ _ S2 S3)).
Qed.

Theorem literal_string_complete i t v r : literal_string_tok t v -> rest i = t ++ r ->
  literal_string i = Ok v (adv t i).
Proof.
  intros (V & body & -> & St) H. apply star_one_inv in St as [-> Hb].
  cbn [app] in V. rewrite utf8_cons_ascii in V by reflexivity.
  destruct (utf8_split body x27 [] eq_refl V) as [Vb _].
  rewrite literal_string_unfold. apply context_ok, from_utf8_ok; [|exact Vb].
  unfold literal_inner, APOSTROPHE. rewrite <- !app_assoc in H. cbn [app] in H.
  rewrite (bind_ok _ _ _ _ _ (byte_ok x27 i _ H)). pose proof (rest_adv [x27] _ _ H) as R.
  rewrite (bind_ok _ _ _ body (adv body (adv [x27] i))).
  - pose proof (rest_adv body _ _ R) as R2.
    rewrite (bind_ok _ _ _ _ _ (cut_err_ok _ _ _ _ (byte_ok x27 _ r R2))). unfold ret. rewrite !adv_adv. reflexivity.
  - apply cut_err_ok. unfold take_while0. rewrite (take_while_ext _ _ _ _ _ LITERAL_CHAR_ok).
    apply (take_while_ok 0 _ _ body _ R Hb); [reflexivity|lia].
Qed.

Lemma literal_string_fails i : stops (byte_eqb x27) (rest i) -> fails literal_string i.
Proof.
  intro H. unfold fails. rewrite literal_string_unfold. apply context_fails, from_utf8_fails.
  unfold literal_inner, APOSTROPHE. apply bind_fails, byte_fails. exact H.
Qed.

(* ---- simple-key = quoted-key / unquoted-key ---------------------------------------------------------------------------------------- *)
Definition key_dispatch : parser bytes :=
  b <- peek any ;;
  if byte_eqb b QUOTATION_MARK then basic_string
  else if byte_eqb b APOSTROPHE then literal_string
  else unquoted_key.

Lemma simple_key_unfold i :
  simple_key i = pmap (fun '(k, sp) => (raw_with_span sp, k)) (with_span (context key_dispatch)) i.
Proof. reflexivity. Qed.

Lemma key_dispatch_sound i k i' : key_dispatch i = Ok k i' -> exists t, simple_key_tok t k /\ splits i t i'.
Proof.
  unfold key_dispatch. intro H. apply bind_inv in H as (b & i1 & H1 & H). apply peek_inv in H1 as [-> _].
  destruct (byte_eqb b QUOTATION_MARK).
  { apply basic_string_sound in H as (t & Ht & S). exists t. split; [left; exact Ht|exact S]. }
  destruct (byte_eqb b APOSTROPHE).
  { apply literal_string_sound in H as (t & Ht & S). exists t. split; [right; left; exact Ht|exact S]. }
  apply unquoted_key_sound in H as (Ht & S & _). exists k. split; [right; right; auto|exact S].
Qed.

Lemma unquoted_not_quote b : unquoted_key_char b = true -> byte_eqb b x22 = false /\ byte_eqb b x27 = false.
Proof. cls. lia. Qed.

Lemma key_dispatch_complete i t k r : simple_key_tok t k -> rest i = t ++ r ->
  (unquoted_key_tok t -> stops unquoted_key_char r) -> key_dispatch i = Ok k (adv t i).
Proof.
  intros Ht H Hr. unfold key_dispatch, QUOTATION_MARK, APOSTROPHE. destruct Ht as [Ht | [Ht | [Ht ->]]].
  - pose proof Ht as (_ & body & E & _).
    assert (H' : rest i = x22 :: (body ++ [x22]) ++ r) by (rewrite H, E; reflexivity).
    rewrite (bind_ok _ _ _ _ _ (peek_ok _ _ _ _ (any_ok i x22 _ H'))). change (byte_eqb x22 x22) with true. cbv iota.
    apply (basic_string_complete i t k r Ht H).
  - pose proof Ht as (_ & body & E & _).
    assert (H' : rest i = x27 :: (body ++ [x27]) ++ r) by (rewrite H, E; reflexivity).
    rewrite (bind_ok _ _ _ _ _ (peek_ok _ _ _ _ (any_ok i x27 _ H'))).
    change (byte_eqb x27 x22) with false. change (byte_eqb x27 x27) with true. cbv iota.
    apply (literal_string_complete i t k r Ht H).
  - pose proof Ht as [Hne Ha]. destruct t as [|b t']; [congruence|].
    rewrite (bind_ok _ _ _ _ _ (peek_ok _ _ _ _ (any_ok i b _ H))).
    unfold all in Ha. cbn [forallb] in Ha. apply andb_true_iff in Ha as [Hb _].
    destruct (unquoted_not_quote b Hb) as [-> ->].
    apply (unquoted_key_complete i (b :: t') r H Ht (Hr Ht)).
Qed.

Theorem simple_key_sound i rw k i' : simple_key i = Ok (rw, k) i' ->
  exists t, simple_key_tok t k /\ splits i t i' /\ rw = raw_with_span (pos i, pos i').
Proof.
  rewrite simple_key_unfold. intro H. apply pmap_inv in H as ([k0 sp] & H & E).
  apply with_span_inv in H as (a & H & E2). injection E2 as <- <-. injection E as -> ->.
  apply context_inv in H. apply key_dispatch_sound in H as (t & Ht & S). eauto.
Qed.

Theorem simple_key_complete i t k r : simple_key_tok t k -> rest i = t ++ r ->
  (unquoted_key_tok t -> stops unquoted_key_char r) ->
  simple_key i = Ok (raw_with_span (pos i, (pos i + N.of_nat (length t))%N), k) (adv t i).
Proof.
  intros Ht H Hr. rewrite simple_key_unfold.
  rewrite (pmap_ok _ _ _ _ _ (with_span_ok _ _ _ _ (context_ok _ _ _ _ (key_dispatch_complete i t k r Ht H Hr)))). reflexivity.
Qed.
