(* Proofs/WFBool.v — a decision procedure `wf_b` for Spec/WF.v (tokens are checked with the model's own token
   parsers, trivia with small scanners); `wf_b_sound : wf_b root = true -> WF root` is in Proofs/WFBoolSound.v. *)
From TV Require Import Base.Prelude Base.Utf8 Base.Winnow Gen.Consts Spec.Abnf Spec.DatetimeSpec Spec.WF.
From TV Require Import Model.Strings Model.Datetime Model.Numbers Model.Tree Model.Parse Model.Encode.

(* ---- trivia scanners ------------------------------------------------------------------------------------- *)
Definition ws_b (t : bytes) : bool := forallb wschar t.
Definition comment_b (t : bytes) : bool :=
  match t with b :: u => byte_eqb b x23 && forallb non_eol u | [] => false end.
(* ws [ comment ] *)
Definition line_trail_b (t : bytes) : bool :=
  let r := snd (span_while wschar t) in
  match r with [] => true | _ => comment_b r end.
(* the text up to the first LF, and what follows it *)
Fixpoint cut_lf (t : bytes) : bytes * option bytes :=
  match t with
  | [] => ([], None)
  | b :: r => if byte_eqb b x0a then ([], Some r)
              else let '(l, o) := cut_lf r in (b :: l, o)
  end.
(* *( ws [ comment ] LF ) <last> *)
Fixpoint lines_gen (last : bytes -> bool) (fuel : nat) (t : bytes) : bool :=
  match fuel with
  | O => false
  | S f => match cut_lf t with
           | (l, None) => last l
           | (l, Some r) => line_trail_b l && lines_gen last f r
           end
  end.
Definition lines_b (t : bytes) : bool := lines_gen ws_b (S (length t)) t.
Definition doc_trail_b (t : bytes) : bool := lines_gen line_trail_b (S (length t)) t.

Definition slot_b (sl : slot) (t : bytes) : bool :=
  match sl with
  | SWs => ws_b t
  | SLineTrail => line_trail_b t
  | SLines => lines_b t
  | SWscn => lines_b t
  | SDocTrail => doc_trail_b t
  end.
Definition raw_b (sl : slot) (r : raw) : bool :=
  match r with RSpanned _ _ => false | _ => slot_b sl (raw_encode r []) end.
Definition oraw_b (sl : slot) (o : option raw) : bool := match o with Some r => raw_b sl r | None => true end.
Definition decor_b (pre suf : slot) (d : decor) : bool := oraw_b pre (d_prefix d) && oraw_b suf (d_suffix d).

(* ---- tokens -------------------------------------------------------------------------------------------------- *)
Definition whole {A} (eqb : A -> A -> bool) (p : parser A) (t : bytes) (x : A) : bool :=
  match p (new_input t) with
  | Ok y i' => match rest i' with [] => eqb y x | _ => false end
  | _ => false
  end.
Definition fval_eqb (a b : fval) : bool :=
  match a, b with
  | FNan n, FNan m => Bool.eqb n m
  | FInf n, FInf m => Bool.eqb n m
  | FDec n m e, FDec n' m' e' => Bool.eqb n n' && (m =? m')%N && (e =? e')%Z
  | _, _ => false
  end.
Definition date_eqb (a b : date) : bool := (year a =? year b)%N && (month a =? month b)%N && (day a =? day b)%N.
Definition time_eqb (a b : time) : bool :=
  (hour a =? hour b)%N && (minute a =? minute b)%N && (second a =? second b)%N && (nanosecond a =? nanosecond b)%N.
Definition offset_eqb (a b : offset) : bool :=
  match a, b with OffZ, OffZ => true | OffCustom x, OffCustom y => (x =? y)%Z | _, _ => false end.
Definition opt_eqb {A} (eqb : A -> A -> bool) (a b : option A) : bool :=
  match a, b with Some x, Some y => eqb x y | None, None => true | _, _ => false end.
Definition datetime_eqb (a b : datetime) : bool :=
  opt_eqb date_eqb (d_date a) (d_date b) && opt_eqb time_eqb (d_time a) (d_time b) && opt_eqb offset_eqb (d_offset a) (d_offset b).

Definition scalar_tok_b (t : bytes) (x : scalar) : bool :=
  match x with
  | SString v => whole bytes_eqb string_ t v
  | SInt z => whole Z.eqb integer t z
  | SFloat f => whole fval_eqb float t f
  | SBool b => whole Bool.eqb (true_ <|> false_) t b
  | SDatetime d => whole datetime_eqb date_time t d
  end.
Definition scalar_lim_b (x : scalar) : bool :=
  match x with
  | SInt z => in_i64 z
  | SFloat (FDec _ m e) => negb (overflows m e)
  | _ => true
  end.
Definition default_b (x : scalar) : bool :=
  match x with
  | SString v => utf8_valid_b v
  | SFloat (FDec _ _ _) => false
  | SDatetime d => in_range d
  | _ => true
  end.
Definition repr_b (x : scalar) (r : option raw) : bool :=
  match r with
  | None => default_b x
  | Some (RExplicit s) => scalar_tok_b s x
  | Some _ => false
  end.
Definition key_repr_b (k : key) : bool :=
  match k_repr k with
  | None => utf8_valid_b (k_key k)
  | Some (RExplicit s) => whole bytes_eqb (pmap snd simple_key) s (k_key k)
  | Some _ => false
  end.
Definition key_b (line : bool) (k : key) : bool :=
  key_repr_b k && decor_b SWs SWs (k_dotted k) && decor_b (if line then SLines else SWs) SWs (k_leaf k).

(* ---- values ---------------------------------------------------------------------------------------------------- *)
Definition vdecor_b (c : vctx) (d : decor) : bool :=
  match c with
  | CLine => decor_b SWs SLineTrail d
  | CArr => decor_b SWscn SWscn d
  | CInl => decor_b SWs SWs d
  end.
Fixpoint nodup_b (l : list bytes) : bool :=
  match l with [] => true | x :: tl => negb (existsb (bytes_eqb x) tl) && nodup_b tl end.
Definition nonempty {A} (l : list A) : bool := match l with [] => false | _ => true end.

Fixpoint value_b (c : vctx) (v : value) {struct v} : bool :=
  match v with
  | VScalar x r d => repr_b x r && scalar_lim_b x && vdecor_b c d
  | VArray vals tr _ d _ =>
    vdecor_b c d && raw_b SWscn tr
    && forallb (fun it => match it with IValue e => value_b CArr e | _ => false end) vals
  | VInline items pre _ _ d _ =>
    vdecor_b c d && raw_b SWs pre && nodup_b (kkeys items)
    && forallb (fun kv => key_b false (fst kv) && pair_b false (snd kv)) items
  end
with pair_b (line : bool) (it : item) {struct it} : bool :=
  match it with
  | IValue v =>
    match v with
    | VInline sub _ _ true _ _ =>
      nonempty sub && nodup_b (kkeys sub)
      && forallb (fun kv => key_b line (fst kv) && pair_b line (snd kv)) sub
    | _ => value_b (if line then CLine else CInl) v
    end
  | _ => false
  end.

Fixpoint tbl_b (top : bool) (t : tbl) {struct t} : bool :=
  match t with
  | Tbl items d _ _ _ _ =>
    decor_b SLines (if top then SLines else SLineTrail) d && nodup_b (kkeys items)
    && forallb (fun kv =>
                  key_b true (fst kv) &&
                  match snd kv with
                  | INone => false
                  | IValue _ => pair_b true (snd kv)
                  | ITable sub =>
                    tbl_b false sub && (if t_dotted sub then has_line sub || prints_header sub else shown sub || prints_header sub)
                  | IAot ts _ => nonempty ts && forallb (fun e => negb (t_dotted e) && tbl_b false e) ts
                  end) items
  end.

(* ---- limits --------------------------------------------------------------------------------------------------------- *)
Fixpoint value_lim_b (d : nat) (v : value) {struct v} : bool :=
  match v with
  | VScalar _ _ _ => true
  | VArray vals _ _ _ _ =>
    Nat.ltb (S d) LIMIT && forallb (fun it => match it with IValue e => value_lim_b (S d) e | _ => true end) vals
  | VInline items _ _ _ _ _ => Nat.ltb (S d) LIMIT && forallb (fun kv => pair_lim_b (S d) 1 (snd kv)) items
  end
with pair_lim_b (d n : nat) (it : item) {struct it} : bool :=
  match it with
  | IValue v =>
    match v with
    | VInline sub _ _ true _ _ => forallb (fun kv => pair_lim_b d (S n) (snd kv)) sub
    | _ => Nat.ltb (n + value_depth v) LIMIT && value_lim_b d v
    end
  | _ => true
  end.
Fixpoint line_lim_b (n : nat) (it : item) {struct it} : bool :=
  match it with
  | IValue v =>
    match v with
    | VInline sub _ _ true _ _ => forallb (fun kv => line_lim_b (S n) (snd kv)) sub
    | _ => Nat.ltb n LIMIT && value_lim_b 0 v
    end
  | _ => true
  end.
Fixpoint tbl_lim_b (h n : nat) (t : tbl) {struct t} : bool :=
  match t with
  | Tbl items _ _ _ _ _ =>
    forallb (fun kv =>
               match snd kv with
               | IValue _ => line_lim_b (S n) (snd kv)
               | ITable sub => if t_dotted sub then tbl_lim_b (S h) (S n) sub else Nat.ltb (S h) LIMIT && tbl_lim_b (S h) 0 sub
               | IAot ts _ => Nat.ltb (S h) LIMIT && forallb (fun e => tbl_lim_b (S h) 0 e) ts
               | INone => true
               end) items
  end.

Fixpoint nondecreasing_b (l : list N) : bool :=
  match l with
  | a :: ((b :: _) as tl) => (a <=? b)%N && nondecreasing_b tl
  | _ => true
  end.
Definition order_b (root : tbl) : bool := nondecreasing_b (map fst (assign_positions 0 (sections root [] false))).

Definition wf_b (root : tbl) : bool :=
  negb (t_dotted root) && tbl_b true root && tbl_lim_b 0 0 root && order_b root.
Definition wfdoc_b (root : tbl) (trailing : raw) : bool := wf_b root && raw_b SDocTrail trailing.
