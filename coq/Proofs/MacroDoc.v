(* Proofs/MacroDoc.v — C19: arrays and inline tables (the @trailingcomma / @array / @table loops), statements
   and whole documents: the expansion of `toml!{ tokens_of l }` returns what `eval l` says, within the fuel
   the model gives itself. *)
From TV Require Import Base.Prelude Model.Datetime Model.Macro Spec.Defs Spec.MacroSpec.
From TV Require Import Proofs.MacroSem Proofs.MacroMatch Proofs.MacroRules Proofs.MacroTails Proofs.MacroEval Proofs.MacroAux
  Proofs.MacroStmt Proofs.MacroScalar.
Require Import Lia.

(* ---- an induction principle for values ---- *)
Lemma aval_ind' : forall P : aval -> Prop,
  (forall s, P (AStr s)) -> (forall sg t, P (AInt sg t)) -> (forall sg t, P (AFloat sg t)) ->
  (forall sg nan, P (ASpecial sg nan)) -> (forall b, P (ABool b)) -> (forall d, P (ADt d)) ->
  (forall l tr, Forall P l -> P (AArr l tr)) ->
  (forall ps, Forall (fun px => P (snd px)) ps -> P (AInl ps)) ->
  forall v, P v.
Proof.
  intros P Hs Hi Hf Hx Hb Hd Ha Hl.
  fix F 1. intros [s|sg t|sg t|sg nan|b|d|l tr|ps].
  - apply Hs. - apply Hi. - apply Hf. - apply Hx. - apply Hb. - apply Hd.
  - apply Ha. induction l as [|x l IH]; constructor; [apply F|exact IH].
  - apply Hl. induction ps as [|[p x] ps IH]; constructor; [apply F|exact IH].
Qed.

(* ---- token lists with commas ---- *)
Definition with_commas (groups : list (list tt)) : list tt := flat_map (fun g => g ++ [TPunct c_comma]) groups.

Lemma join_commas : forall groups, groups <> [] ->
  join_tts (Some c_comma) groups ++ [TPunct c_comma] = with_commas groups.
Proof.
  induction groups as [|g [|g2 groups] IH]; intro H; [contradiction| |].
  - cbn. rewrite app_nil_r. reflexivity.
  - change (join_tts (Some c_comma) (g :: g2 :: groups)) with (g ++ [TPunct c_comma] ++ join_tts (Some c_comma) (g2 :: groups)).
    change (with_commas (g :: g2 :: groups)) with ((g ++ [TPunct c_comma]) ++ with_commas (g2 :: groups)).
    rewrite <- IH by discriminate. rewrite <- !app_assoc. reflexivity.
Qed.

(* ---- first and last token of a value ---- *)
Definition ends_plain (g : list tt) : Prop := exists X t, g = X ++ [t] /\ is_plain t = true.

Lemma join_ends_plain : forall groups, groups <> [] -> Forall ends_plain groups ->
  ends_plain (join_tts (Some c_comma) groups).
Proof.
  induction groups as [|g [|g2 groups] IH]; intros Hne H; [contradiction| |].
  - inversion H; assumption.
  - inversion H as [|? ? _ Hrest]; subst. destruct (IH ltac:(discriminate) Hrest) as [Y [t [HY Ht]]].
    exists (g ++ [TPunct c_comma] ++ Y), t. split; [|exact Ht].
    change (join_tts (Some c_comma) (g :: g2 :: groups)) with (g ++ [TPunct c_comma] ++ join_tts (Some c_comma) (g2 :: groups)).
    rewrite HY, <- !app_assoc. reflexivity.
Qed.

Lemma dt_toks_shape : forall d, dt_ok d = true ->
  (exists l X, dt_toks d = TLit l :: X) /\ (exists X l, dt_toks d = X ++ [TLit l]).
Proof.
  intros d H. destruct (dt_toks_skel d H) as [k [e Hsk]]. destruct (skel_facts _ _ _ _ Hsk) as [[l [X HX]] [[l2 Hl] _]].
  split; [eauto|]. exists (removelast (dt_toks d)), l2. rewrite <- Hl. apply app_removelast_last. rewrite HX. discriminate.
Qed.

Lemma val_toks_last : forall v, val_ok v = true -> ends_plain (val_toks v).
Proof.
  intros [s|sg t|sg t|sg nan|b|d|l tr|ps] H; cbn [val_toks].
  - exists [], (TLit (LStr s)). split; reflexivity.
  - exists (sign_toks sg), (TLit (LInt t)). split; reflexivity.
  - exists (sign_toks sg), (TLit (LFloat t)). split; reflexivity.
  - exists (sign_toks sg), (TIdent (if nan then id_nan else id_inf)). split; reflexivity.
  - exists [], (TIdent (if b then id_true else id_false)). split; reflexivity.
  - destruct (dt_toks_shape d H) as [_ [X [l Hl]]]. exists X, (TLit l). split; [exact Hl|reflexivity].
  - eexists [], _. split; reflexivity.
  - eexists [], _. split; reflexivity.
Qed.

Lemma val_toks_comma_head : forall v X, val_ok v = true -> comma_rest_ok (val_toks v ++ X) = true.
Proof.
  intros [s|sg t|sg t|sg nan|b|d|l tr|ps] X H; cbn [val_toks]; try reflexivity.
  - destruct sg; reflexivity.
  - destruct sg; reflexivity.
  - destruct sg; reflexivity.
  - destruct (dt_toks_shape d H) as [[l [Y Hl]] _]. rewrite Hl. reflexivity.
Qed.

Lemma val_toks_nonempty : forall v, val_ok v = true -> val_toks v <> [].
Proof.
  intros v H. destruct (val_toks_last v H) as [X [t [E _]]]. rewrite E. destruct X; discriminate.
Qed.

(* @trailingcomma on a non-empty comma-separated list, with or without a trailing comma *)
Lemma Ev_tc_items : forall cur A groups (tr : bool) r n, groups <> [] -> Forall ends_plain groups ->
  Ev cur (A ++ with_commas groups) r n ->
  Ev cur (tc_in A (join_tts (Some c_comma) groups ++ (if tr then [TPunct c_comma] else []))) r
     (List.length (join_tts (Some c_comma) groups ++ (if tr then [TPunct c_comma] else [])) + n).
Proof.
  intros cur A groups tr r n Hne Hends H. rewrite <- (join_commas _ Hne) in H.
  destruct tr.
  - rewrite app_length. cbn [List.length].
    replace (List.length (join_tts (Some c_comma) groups) + 1 + n) with (S (List.length (join_tts (Some c_comma) groups)) + n) by lia.
    apply Ev_tc_comma. exact H.
  - rewrite app_nil_r. destruct (join_ends_plain groups Hne Hends) as [Y [t [EY Ht]]]. rewrite EY in *.
    rewrite <- app_assoc in H. rewrite app_length. cbn [List.length].
    replace (List.length Y + 1 + n) with (S (List.length Y) + n) by lia.
    exact (Ev_tc_plain _ Y _ t _ _ Ht H).
Qed.

(* ---- costs (an upper bound of the expansion depth, as a sum) ---- *)
Definition arr_inner (l : list aval) (tr : bool) : list tt :=
  join_tts (Some c_comma) (List.map val_toks l) ++ (if tr then [TPunct c_comma] else []).
Definition pair_toks (px : kpath * aval) : list tt := key_toks (fst px) ++ [TPunct c_eq] ++ val_toks (snd px).
Definition inl_inner (ps : list (kpath * aval)) : list tt := join_tts (Some c_comma) (List.map pair_toks ps).

Lemma val_toks_arr : forall l tr, val_toks (AArr l tr) = [TGroup DBracket (arr_inner l tr)].
Proof. reflexivity. Qed.
Lemma val_toks_inl : forall ps, val_toks (AInl ps) = [TGroup DBrace (inl_inner ps)].
Proof. reflexivity. Qed.

Fixpoint vcost (v : aval) : nat :=
  match v with
  | AArr l tr =>
    3 + List.length (arr_inner l tr)
    + (fix sum (l : list aval) : nat := match l with [] => 0 | x :: tl => 2 + vcost x + sum tl end) l
  | AInl ps =>
    3 + List.length (inl_inner ps)
    + (fix sum (ps : list (kpath * aval)) : nat := match ps with [] => 0 | px :: tl => 2 + vcost (snd px) + sum tl end) ps
  | _ => 1
  end.
Definition elems_cost (l : list aval) : nat := fold_right (fun x acc => 2 + vcost x + acc) 0 l.
Definition pairs_cost (ps : list (kpath * aval)) : nat := fold_right (fun px acc => 2 + vcost (snd px) + acc) 0 ps.

Lemma elems_sum_eq : forall l,
  (fix sum (l : list aval) : nat := match l with [] => 0 | x :: tl => 2 + vcost x + sum tl end) l = elems_cost l.
Proof. induction l as [|x l IH]; [reflexivity|]. change (elems_cost (x :: l)) with (2 + vcost x + elems_cost l). rewrite <- IH. reflexivity. Qed.
Lemma pairs_sum_eq : forall ps,
  (fix sum (ps : list (kpath * aval)) : nat := match ps with [] => 0 | px :: tl => 2 + vcost (snd px) + sum tl end) ps = pairs_cost ps.
Proof. induction ps as [|x l IH]; [reflexivity|]. change (pairs_cost (x :: l)) with (2 + vcost (snd x) + pairs_cost l). rewrite <- IH. reflexivity. Qed.

Lemma vcost_arr : forall l tr, vcost (AArr l tr) = 3 + List.length (arr_inner l tr) + elems_cost l.
Proof. intros l tr. rewrite <- elems_sum_eq. reflexivity. Qed.
Lemma vcost_inl : forall ps, vcost (AInl ps) = 3 + List.length (inl_inner ps) + pairs_cost ps.
Proof. intros ps. rewrite <- pairs_sum_eq. reflexivity. Qed.

(* ---- the @array loop ---- *)
Lemma array_loop : forall r l ms acc, ident_frag_ok r = true ->
  Forall2 (fun v m => val_ok v = true /\ val_ev v m (vcost v)) l ms ->
  Ev (MArr acc) (st_in id_array r (with_commas (List.map val_toks l))) (EOk (MArr (acc ++ ms))) (1 + elems_cost l).
Proof.
  intros r l ms acc Hr H. revert acc. induction H as [|v m l ms [Hok Hev] Hrest IH]; intro acc.
  - cbn [List.map with_commas flat_map elems_cost fold_right]. rewrite app_nil_r.
    eapply Ev_mono; [eapply Ev_nothing; apply (arr_first_match_end r Hr)|lia].
  - cbn [List.map with_commas flat_map elems_cost fold_right]. rewrite <- app_assoc. cbn [app].
    eapply Ev_mono.
    + eapply (arr_value r acc v _ m); [exact Hr|exact Hok| |exact Hev|].
      * destruct l as [|v2 l2]; [reflexivity|]. inversion Hrest as [|? ? ? ? [Hok2 _] _]; subst.
        cbn [List.map flat_map]. rewrite <- app_assoc. apply val_toks_comma_head. exact Hok2.
      * specialize (IH (acc ++ [m])). rewrite <- app_assoc in IH. exact IH.
    + unfold elems_cost. lia.
Qed.

(* ---- the @table loop ---- *)
Lemma part_tok_key : forall p, key_tok (part_tok p) = true.
Proof. intros [s|s]; reflexivity. Qed.
Lemma key_segs_tok : forall p, Forall (Forall (fun t => key_tok t = true)) (List.map seg_parts p).
Proof.
  induction p as [|s p IH]; constructor; [|exact IH].
  destruct s as [ps|q]; cbn [seg_parts]; [|repeat constructor].
  induction ps as [|a ps IHp]; constructor; [apply part_tok_key|exact IHp].
Qed.

Lemma key_toks_head : forall p, path_ok p = true -> exists t X, key_toks p = t :: X /\ key_tok t = true.
Proof.
  intros p Hp. rewrite key_toks_dot.
  apply dot_join_not_group; [exact (proj1 (path_segs_ok p Hp))|apply key_segs_tok].
Qed.

Definition pair_ok (px : kpath * aval) (pr : list bytes * mval) : Prop :=
  path_ok (fst px) = true /\ val_ok (snd px) = true /\ fst pr = path_strings (fst px) /\ val_ev (snd px) (snd pr) (vcost (snd px)).

Lemma table_loop : forall r ps pairs, ident_frag_ok r = true -> Forall2 pair_ok ps pairs ->
  forall cur final, inline_helper_fold cur pairs = Some final ->
  Ev cur (st_in id_table r (with_commas (List.map pair_toks ps))) (EOk final) (1 + pairs_cost ps).
Proof.
  intros r ps pairs Hr H. induction H as [|[p v] [ks m] ps pairs [Hp [Hv [Hk Hev]]] Hrest IH]; intros cur final Hf.
  - cbn [inline_helper_fold] in Hf. injection Hf as <-.
    cbn [List.map with_commas flat_map pairs_cost fold_right]. 
    eapply Ev_mono; [eapply Ev_nothing; apply (tab_first_match_end r Hr)|lia].
  - cbn [fst snd] in *. subst ks. cbn [inline_helper_fold] in Hf.
    destruct (insert_toml cur (path_strings p) m) as [cur'|] eqn:Ei; [|discriminate].
    cbn [List.map with_commas flat_map pairs_cost fold_right snd]. unfold pair_toks at 1. cbn [fst snd].
    rewrite <- !app_assoc. cbn [app].
    eapply Ev_mono.
    + eapply (tab_value r p cur v _ m cur'); [exact Hr|exact Hp|exact Hv| |exact Hev|exact Ei|].
      * destruct ps as [|[p2 v2] ps2]; [reflexivity|]. inversion Hrest as [|? ? ? ? [Hp2 _] _]; subst.
        cbn [List.map flat_map]. unfold pair_toks at 1. cbn [fst snd].
        destruct (key_toks_head p2 Hp2) as [t [X [E Ht]]]. rewrite E. cbn [app].
        destruct t; try discriminate Ht; reflexivity.
      * apply IH. exact Hf.
    + unfold pairs_cost. lia.
Qed.

(* ---- arrays and inline tables as values ---- *)
Lemma id_array_ok : ident_frag_ok id_array = true. Proof. reflexivity. Qed.
Lemma id_table_ok : ident_frag_ok id_table = true. Proof. reflexivity. Qed.
Lemma id_root_ok : ident_frag_ok id_root = true. Proof. reflexivity. Qed.

Lemma tr_array_inline : forall X,
  transcribe_seq q_array_inline [(Vinline, tts_bnd X)] = tc_in [TPunct c_at; TIdent id_array; TIdent id_array] X.
Proof.
  intro X. unfold transcribe_seq, q_array_inline, qstate. cbn [app flat_map].
  rewrite (transcribe_star Vinline [(Vinline, tts_bnd X)] X eq_refl). cbn [transcribe flat_map Q app]. rewrite app_nil_r. reflexivity.
Qed.
Lemma tr_table_inline : forall X,
  transcribe_seq q_table_inline [(Vinline, tts_bnd X)] = tc_in [TPunct c_at; TIdent id_table; TIdent id_table] X.
Proof.
  intro X. unfold transcribe_seq, q_table_inline, qstate. cbn [app flat_map].
  rewrite (transcribe_star Vinline [(Vinline, tts_bnd X)] X eq_refl). cbn [transcribe flat_map Q app]. rewrite app_nil_r. reflexivity.
Qed.

Lemma arr_ev : forall l tr ms, val_ok (AArr l tr) = true ->
  Forall2 (fun v m => val_ok v = true /\ val_ev v m (vcost v)) l ms ->
  val_ev (AArr l tr) (MArr ms) (vcost (AArr l tr)).
Proof.
  intros l tr ms Hok H. cbn [val_ev]. rewrite val_toks_arr, vcost_arr.
  change (3 + List.length (arr_inner l tr) + elems_cost l) with (S (2 + List.length (arr_inner l tr) + elems_cost l)).
  eapply Ev_valarray; [apply value_rule_bracket|]. rewrite tr_array_inline.
  cbn [val_ok] in Hok. apply andb_true_iff in Hok as [Hall Htr]. unfold arr_inner.
  destruct l as [|v0 l0].
  - (* [] *)
    destruct tr; [discriminate Htr|]. inversion H; subst.
    apply Ev_tc_nil. eapply Ev_nothing. apply (arr_first_match_end id_array id_array_ok).
  - eapply Ev_mono; [apply Ev_tc_items; [discriminate| |exact (array_loop id_array _ ms [] id_array_ok H)]|lia].
    apply Forall_map, Forall_forall. intros v Hv. apply val_toks_last. rewrite forallb_forall in Hall. exact (Hall v Hv).
Qed.

Lemma inl_ev : forall ps pairs t, val_ok (AInl ps) = true -> Forall2 pair_ok ps pairs ->
  inline_fold [] pairs = ROk t ->
  val_ev (AInl ps) (MTab (erase_tree t)) (vcost (AInl ps)).
Proof.
  intros ps pairs t Hok H Hfold. cbn [val_ev]. rewrite val_toks_inl, vcost_inl.
  change (3 + List.length (inl_inner ps) + pairs_cost ps) with (S (2 + List.length (inl_inner ps) + pairs_cost ps)).
  eapply Ev_valtable; [apply value_rule_brace|]. rewrite tr_table_inline.
  pose proof (inline_helper_fold_ref pairs [] t Hfold) as Hh. change (MTab (erase_tree [])) with (MTab []) in Hh.
  cbn [val_ok] in Hok. unfold inl_inner.
  destruct ps as [|px0 ps0].
  - inversion H; subst. cbn [inline_fold] in Hfold. injection Hfold as <-.
    apply Ev_tc_nil. eapply Ev_nothing. apply (tab_first_match_end id_table id_table_ok).
  - rewrite <- (app_nil_r (join_tts _ _)).
    eapply Ev_mono; [apply (Ev_tc_items _ _ _ false); [discriminate| |exact (table_loop id_table _ pairs id_table_ok H (MTab []) _ Hh)]|lia].
    apply Forall_map, Forall_forall. intros px Hpx. rewrite forallb_forall in Hok. specialize (Hok px Hpx).
    apply andb_true_iff in Hok as [_ Hv]. destruct (val_toks_last _ Hv) as [X [t0 [EX Ht]]].
    exists (key_toks (fst px) ++ [TPunct c_eq] ++ X), t0. split; [|exact Ht].
    unfold pair_toks. rewrite EX, <- !app_assoc. reflexivity.
Qed.

(* ---- the meaning of composite values, element by element ---- *)
Lemma arr_meaning : forall l tr m, val_meaning (AArr l tr) = Some m ->
  exists ms, m = MArr ms /\ Forall2 (fun v m => val_meaning v = Some m) l ms.
Proof.
  intros l tr m H. cbn [val_meaning] in H.
  match type of H with optmap MArr (?F l) = _ => set (go := F) in * end.
  destruct (go l) as [ms|] eqn:E; [|discriminate]. injection H as <-. exists ms. split; [reflexivity|].
  revert ms E. induction l as [|x l IH]; intros ms E.
  - cbn in E. injection E as <-. constructor.
  - cbn in E. fold go in E. destruct (val_meaning x) as [a|] eqn:Ex; [|discriminate].
    destruct (go l) as [b|] eqn:El; [|discriminate]. injection E as <-. constructor; [exact Ex|apply IH; reflexivity].
Qed.

Lemma inl_meaning : forall ps m, val_meaning (AInl ps) = Some m ->
  exists pairs t, Forall2 (fun px pr => fst pr = path_strings (fst px) /\ val_meaning (snd px) = Some (snd pr)) ps pairs
                  /\ inline_fold [] pairs = ROk t /\ m = MTab (erase_tree t).
Proof.
  intros ps m H. cbn [val_meaning] in H.
  match type of H with match ?F ps with _ => _ end = _ => set (go := F) in * end.
  destruct (go ps) as [pairs|] eqn:E; [|discriminate].
  destruct (inline_fold [] pairs) as [t| |] eqn:Ef; try discriminate. injection H as <-.
  exists pairs, t. split; [|split; [exact Ef|reflexivity]].
  clear Ef. revert pairs E. induction ps as [|px ps IH]; intros pairs E.
  - cbn in E. injection E as <-. constructor.
  - cbn in E. fold go in E. destruct (val_meaning (snd px)) as [a|] eqn:Ex; [|discriminate].
    destruct (go ps) as [b|] eqn:El; [|discriminate]. injection E as <-. constructor; [split; [reflexivity|exact Ex]|apply IH; reflexivity].
Qed.

Lemma Forall2_in_l : forall {A B} (R R' : A -> B -> Prop) l ms, Forall2 R l ms ->
  (forall a b, In a l -> R a b -> R' a b) -> Forall2 R' l ms.
Proof.
  intros A B R R' l ms H. induction H as [|a b l ms Hab _ IH]; intro Himp; constructor.
  - apply Himp; [left; reflexivity|exact Hab].
  - apply IH. intros a' b' Hin. apply Himp. right. exact Hin.
Qed.

(* ---- every supported value ---- *)
Section Values.
(* date-times: proved in Proofs/MacroDt.v and discharged in Proofs/MacroTop.v *)
Hypothesis dt_agree : forall d dv, dt_ok d = true -> doc_datetime (dt_text d) = Some dv ->
  datetime_value (dt_norm_toks d) = EOk (MDatetime dv).

Theorem val_ev_holds : forall v m, val_ok v = true -> val_meaning v = Some m -> val_ev v m (vcost v).
Proof.
  induction v as [s|sg t|sg t|sg nan|b|d|l tr IH|ps IH] using aval_ind'; intros m Hok Hm.
  - cbn [val_meaning] in Hm. injection Hm as <-. apply str_ev.
  - cbn [val_meaning val_ok] in *. destruct (int_meaning sg t) as [z|] eqn:E; [|discriminate]. injection Hm as <-.
    apply int_ev; assumption.
  - cbn [val_meaning val_ok] in *. destruct (float_meaning sg t) as [f|] eqn:E; [|discriminate]. injection Hm as <-.
    apply float_ev; assumption.
  - cbn [val_meaning] in Hm. injection Hm as <-. apply special_ev.
  - cbn [val_meaning] in Hm. injection Hm as <-. apply bool_ev.
  - cbn [val_meaning val_ok] in *. destruct (doc_datetime (dt_text d)) as [dv|] eqn:E; [|discriminate]. injection Hm as <-.
    cbn [val_ev]. apply dt_agree; assumption.
  - destruct (arr_meaning l tr m Hm) as [ms [-> HF]].
    apply arr_ev; [exact Hok|].
    cbn [val_ok] in Hok. apply andb_true_iff in Hok as [Hall _]. rewrite forallb_forall in Hall. rewrite Forall_forall in IH.
    apply (Forall2_in_l _ _ _ _ HF). intros v m Hin Hvm. split; [exact (Hall v Hin)|exact (IH v Hin m (Hall v Hin) Hvm)].
  - destruct (inl_meaning ps m Hm) as [pairs [t [HF [Hfold ->]]]].
    apply (inl_ev ps pairs t Hok); [|exact Hfold].
    cbn [val_ok] in Hok. rewrite forallb_forall in Hok. rewrite Forall_forall in IH.
    apply (Forall2_in_l _ _ _ _ HF). intros px pr Hin [Hk Hvm]. specialize (Hok px Hin). apply andb_true_iff in Hok as [Hp Hv].
    repeat split; try assumption. exact (IH px Hin _ Hv Hvm).
Qed.
End Values.

(* ---- what follows a statement ---- *)
Lemma tokens_of_cons : forall s l, tokens_of (s :: l) = stmt_toks s ++ tokens_of l.
Proof. reflexivity. Qed.

Lemma stmt_toks_head : forall s, stmt_ok s = true -> exists t X, stmt_toks s = t :: X /\ is_plain t = true.
Proof.
  intros [p|p|p v] H; cbn [stmt_ok stmt_toks] in *.
  - eexists; eexists; split; reflexivity.
  - eexists; eexists; split; reflexivity.
  - apply andb_true_iff in H as [Hp _]. destruct (key_toks_head p Hp) as [t [X [E Ht]]]. rewrite E.
    exists t. eexists. split; [reflexivity|]. destruct t; try discriminate Ht; reflexivity.
Qed.

Lemma tokens_head_plain : forall l, forallb stmt_ok l = true ->
  match tokens_of l with TPunct _ :: _ => False | _ => True end.
Proof.
  intros [|s l] H; [exact I|]. cbn [forallb] in H. apply andb_true_iff in H as [Hs _].
  rewrite tokens_of_cons. destruct (stmt_toks_head s Hs) as [t [X [E Ht]]]. rewrite E. cbn [app].
  destruct t; try discriminate Ht; exact I.
Qed.

Lemma key_eq_rest_ok : forall p Y, path_ok p = true -> rest_ok (key_toks p ++ TPunct c_eq :: Y) = true.
Proof.
  intros p Y Hp. rewrite key_toks_dot. pose proof (key_segs_tok p) as Hk.
  destruct (dot_join_front _ (TPunct c_eq :: Y) (proj1 (path_segs_ok p Hp))) as [t [s [segs' [X [E [-> HX]]]]]].
  rewrite E in Hk. inversion Hk as [|? ? Hks _]; subst. inversion Hks as [|? ? Ht _]; subst.
  cbn [rest_ok]. replace (is_plain t) with true by (destruct t; try discriminate Ht; reflexivity).
  destruct HX as [->|[c [X' [-> [->| ->]]]]]; reflexivity.
Qed.

Lemma rest_ok_tokens : forall l, forallb stmt_ok l = true -> rest_ok (tokens_of l) = true.
Proof.
  intros [|s l] H; [reflexivity|]. cbn [forallb] in H. apply andb_true_iff in H as [Hs Hl].
  rewrite tokens_of_cons. pose proof (tokens_head_plain l Hl) as Hh.
  destruct s as [p|p|p v]; cbn [stmt_ok stmt_toks] in *.
  - cbn [app rest_ok is_plain andb]. destruct (tokens_of l) as [|[]]; try reflexivity. contradiction.
  - cbn [app rest_ok is_plain andb]. destruct (tokens_of l) as [|[]]; try reflexivity. contradiction.
  - apply andb_true_iff in Hs as [Hp _]. rewrite <- app_assoc. cbn [app]. apply key_eq_rest_ok. exact Hp.
Qed.

(* ---- statements and documents ---- *)
Definition stmt_cost (s : astmt) : nat := match s with AKeyVal _ v => 2 + vcost v | _ => 1 end.
Definition dcost (l : list astmt) : nat := fold_right (fun s acc => stmt_cost s + acc) 1 l.

Section Doc.
Hypothesis dt_agree : forall d dv, dt_ok d = true -> doc_datetime (dt_text d) = Some dv ->
  datetime_value (dt_norm_toks d) = EOk (MDatetime dv).

Lemma hdr_continue : forall r pt segs R path,
  state_toks id_toplevel ++ [TIdent r; TGroup DBracket (List.map path_tok path)] ++ env_tts Vrest (E_hdr r pt segs R)
  = top_in r (List.map path_tok path) R.
Proof. intros. rewrite (env_tts_lookup Vrest _ R) by reflexivity. reflexivity. Qed.

Theorem doc_ev : forall l t cp s', forallb stmt_ok l = true -> ref_fold (t, cp) l = Some s' ->
  Ev (MTab (erase_tree t)) (top_in id_root (List.map path_tok cp) (tokens_of l)) (EOk (MTab (erase_tree (fst s')))) (dcost l).
Proof.
  induction l as [|st l IH]; intros t cp s' Hok Hf.
  - cbn [ref_fold] in Hf. injection Hf as <-. cbn [tokens_of flat_map dcost fold_right fst].
    eapply Ev_nothing. apply (top_first_match_end id_root _ id_root_ok).
  - cbn [forallb] in Hok. apply andb_true_iff in Hok as [Hst Hl].
    cbn [ref_fold] in Hf. destruct (stmt_meaning st) as [m|] eqn:Em; [|discriminate].
    destruct (ref_step (t, cp) m) as [[t1 cp1]| |] eqn:Es; try discriminate.
    pose proof (helper_step_ref t cp m t1 cp1 Es) as Hh.
    specialize (IH t1 cp1 s' Hl Hf). pose proof (rest_ok_tokens l Hl) as HR.
    rewrite tokens_of_cons. change (dcost (st :: l)) with (stmt_cost st + dcost l).
    destruct st as [p|p|p v]; cbn [stmt_ok stmt_toks stmt_meaning stmt_cost] in *.
    + (* [p] *)
      injection Em as <-. cbn [helper_step] in Hh.
      destruct (insert_table_toml (MTab (erase_tree t)) (path_strings p)) as [root'|] eqn:Ei; [|discriminate]. injection Hh as -> <-.
      destruct (path_segs_ok p Hst) as [Hsegs Hsok].
      rewrite key_toks_dot. cbn [app].
      eapply Ev_tabheader.
      * apply (tabhdr_first_match id_root _ _ _ id_root_ok Hsegs (key_segs_tok p) HR).
      * rewrite (env_segs_lookup Vpath _ (List.map seg_parts p)) by reflexivity. apply key_strs_path. exact Hsok.
      * reflexivity.
      * exact Ei.
      * rewrite hdr_continue. exact IH.
    + (* [[p]] *)
      injection Em as <-. cbn [helper_step] in Hh.
      destruct (push_toml (MTab (erase_tree t)) (path_strings p)) as [root'|] eqn:Ei; [|discriminate]. injection Hh as -> <-.
      destruct (path_segs_ok p Hst) as [Hsegs Hsok].
      rewrite key_toks_dot. cbn [app].
      eapply Ev_arrheader.
      * apply (arrhdr_first_match id_root _ _ _ id_root_ok Hsegs HR).
      * rewrite (env_segs_lookup Vpath _ (List.map seg_parts p)) by reflexivity. apply key_strs_path. exact Hsok.
      * reflexivity.
      * exact Ei.
      * rewrite hdr_continue. exact IH.
    + (* p = v *)
      apply andb_true_iff in Hst as [Hp Hv].
      destruct (val_meaning v) as [mv|] eqn:Ev; [|discriminate]. cbn [optmap] in Em. injection Em as <-.
      cbn [helper_step] in Hh.
      destruct (insert_toml (MTab (erase_tree t)) (cp ++ path_strings p) mv) as [root'|] eqn:Ei; [|discriminate].
      cbn [optmap] in Hh. injection Hh as -> <-.
      rewrite <- !app_assoc.
      eapply Ev_mono.
      * eapply (top_value id_root cp p _ v _ mv); [exact id_root_ok|exact Hp|exact Hv|exact HR| |exact Ei|exact IH].
        apply (val_ev_holds dt_agree); assumption.
      * lia.
Qed.
End Doc.
