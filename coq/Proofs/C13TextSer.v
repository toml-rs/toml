(* Proofs/C13TextSer.v — C13 at the level of text, (b): on the text a serializer writes every route returns the value. *)
From TV Require Import Base.Prelude Gen.Consts.
From TV Require Import Spec.SerdeData Model.SerdeRoutes Model.SerDoc.
From TV Require Import Proofs.C13TextModel Proofs.C13Text Proofs.C13TextTwin.

Theorem serialized_value_first fd back : float_oracle fd back -> forall r0 ty v out,
  has_type v ty -> utf8_ty ty = true -> utf8_sv v = true ->
  ser_text r0 ty v = SerdeData.Ok out -> tv_depth out <= LIMIT -> tunnel_free out = true ->
  exists text v2,
    ser_text_bytes fd r0 ty v = Some text /\ sval_eq v v2
    /\ run_route back Ttval ty text = TOk (OVal v2) /\ run_route back Tttab ty text = TOk (OVal v2).
Proof.
  intros Ho r0 ty v out Hty Ht Hu Hser Hd Hf.
  destruct (serialized_direct fd back Ho r0 ty v out Hty Ht Hu Hser Hd) as (text & d & v' & Htext & Hp & _ & He & _).
  destruct (text_route_value_back r0 ty v out _ Hty Hser Hf He) as (y' & v2 & C1 & C2 & D & Ev).
  exists text, v2. split; [exact Htext|]. split; [exact Ev|]. cbn [run_route].
  unfold route_tval, route_ttab, value_from_str, table_from_str, toml_from_str, edit_deserializer_parse, im_parse. rewrite Hp. cbn [deserialize].
  rewrite C1, C2. cbn [rmap lift]. unfold try_into. rewrite D. split; reflexivity.
Qed.
