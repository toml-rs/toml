(* Proofs/SpansDefs.v — C14: definitions used by the span theorems.
     all_spans d        every span stored anywhere in a parsed document (key reprs, key decor, value
                        reprs and decor, array / inline-table trailing, table spans, array-of-tables
                        spans, document trailing), in traversal order;
     *_in lo hi x       boolean: every span stored anywhere in x is a pair (a, b) with
                        lo <= a <= b <= hi;
     vnest / tnest      boolean: the nesting discipline of C14 (children inside their parent's span);
     *_nospan           boolean: no RSpanned raw string and no table / value / array-of-tables span
                        remains (what `despan` must establish);
     a mutual induction principle for value / item / tbl (nested through lists). *)
From TV Require Import Base.Prelude.
From TV Require Import Model.Tree Model.Document.
Require Import Lia ZifyBool ZifyN ZifyNat.

(* ---- induction principle ----------------------------------------------------------------------- *)
Section TreeInd.
  Variables (Pv : value -> Prop) (Pi : item -> Prop) (Pt : tbl -> Prop).
  Hypothesis Hscalar : forall s r d, Pv (VScalar s r d).
  Hypothesis Harray : forall vals tr c d sp, Forall Pi vals -> Pv (VArray vals tr c d sp).
  Hypothesis Hinline : forall items pre im dt d sp,
      Forall (fun kv : key * item => Pi (snd kv)) items -> Pv (VInline items pre im dt d sp).
  Hypothesis Hnone : Pi INone.
  Hypothesis Hvalue : forall v, Pv v -> Pi (IValue v).
  Hypothesis Htable : forall t, Pt t -> Pi (ITable t).
  Hypothesis Haot : forall ts sp, Forall Pt ts -> Pi (IAot ts sp).
  Hypothesis Htbl : forall items d im dt p sp,
      Forall (fun kv : key * item => Pi (snd kv)) items -> Pt (Tbl items d im dt p sp).

  Fixpoint value_ind' (v : value) : Pv v :=
    match v with
    | VScalar s r d => Hscalar s r d
    | VArray vals tr c d sp =>
      Harray vals tr c d sp
        ((fix go (l : list item) : Forall Pi l :=
            match l with [] => Forall_nil _ | x :: r => Forall_cons x (item_ind' x) (go r) end) vals)
    | VInline items pre im dt d sp =>
      Hinline items pre im dt d sp
        ((fix go (l : list (key * item)) : Forall (fun kv => Pi (snd kv)) l :=
            match l with [] => Forall_nil _ | kv :: r => Forall_cons kv (item_ind' (snd kv)) (go r) end) items)
    end
  with item_ind' (it : item) : Pi it :=
    match it with
    | INone => Hnone
    | IValue v => Hvalue v (value_ind' v)
    | ITable t => Htable t (tbl_ind' t)
    | IAot ts sp =>
      Haot ts sp
        ((fix go (l : list tbl) : Forall Pt l :=
            match l with [] => Forall_nil _ | x :: r => Forall_cons x (tbl_ind' x) (go r) end) ts)
    end
  with tbl_ind' (t : tbl) : Pt t :=
    match t with
    | Tbl items d im dt p sp =>
      Htbl items d im dt p sp
        ((fix go (l : list (key * item)) : Forall (fun kv => Pi (snd kv)) l :=
            match l with [] => Forall_nil _ | kv :: r => Forall_cons kv (item_ind' (snd kv)) (go r) end) items)
    end.
  Definition tree_ind3 : (forall v, Pv v) /\ (forall it, Pi it) /\ (forall t, Pt t) :=
    conj value_ind' (conj item_ind' tbl_ind').
End TreeInd.

(* ---- the collector ------------------------------------------------------------------------------ *)
Definition ospan_spans (o : ospan) : list (N * N) := match o with Some sp => [sp] | None => [] end.
Definition raw_spans (r : raw) : list (N * N) := ospan_spans (raw_span r).
Definition oraw_spans (o : option raw) : list (N * N) := match o with Some r => raw_spans r | None => [] end.
Definition decor_spans (d : decor) : list (N * N) := oraw_spans (d_prefix d) ++ oraw_spans (d_suffix d).
Definition key_spans (k : key) : list (N * N) :=
  oraw_spans (k_repr k) ++ decor_spans (k_leaf k) ++ decor_spans (k_dotted k).

Fixpoint value_spans (v : value) : list (N * N) :=
  match v with
  | VScalar _ r d => oraw_spans r ++ decor_spans d
  | VArray vals tr _ d sp => ospan_spans sp ++ decor_spans d ++ flat_map item_spans vals ++ raw_spans tr
  | VInline items pre _ _ d sp =>
    ospan_spans sp ++ decor_spans d ++ flat_map (fun kv => key_spans (fst kv) ++ item_spans (snd kv)) items
    ++ raw_spans pre
  end
with item_spans (it : item) : list (N * N) :=
  match it with
  | INone => []
  | IValue v => value_spans v
  | ITable t => tbl_spans t
  | IAot ts sp => ospan_spans sp ++ flat_map tbl_spans ts
  end
with tbl_spans (t : tbl) : list (N * N) :=
  match t with
  | Tbl items d _ _ _ sp =>
    ospan_spans sp ++ decor_spans d ++ flat_map (fun kv => key_spans (fst kv) ++ item_spans (snd kv)) items
  end.

Definition all_spans (d : doc) : list (N * N) := tbl_spans (doc_root d) ++ raw_spans (doc_trailing d).

(* ---- "every span lies in [lo, hi]" ------------------------------------------------------------------ *)
Section In.
  Variables lo hi : N.
  Definition sp_in (sp : N * N) : bool := ((lo <=? fst sp) && (fst sp <=? snd sp) && (snd sp <=? hi))%N.
  Definition osp_in (o : ospan) : bool := match o with Some sp => sp_in sp | None => true end.
  Definition raw_in (r : raw) : bool := osp_in (raw_span r).
  Definition oraw_in (o : option raw) : bool := match o with Some r => raw_in r | None => true end.
  Definition decor_in (d : decor) : bool := oraw_in (d_prefix d) && oraw_in (d_suffix d).
  Definition key_in (k : key) : bool := oraw_in (k_repr k) && decor_in (k_leaf k) && decor_in (k_dotted k).

  Fixpoint value_in (v : value) : bool :=
    match v with
    | VScalar _ r d => oraw_in r && decor_in d
    | VArray vals tr _ d sp => forallb item_in vals && raw_in tr && decor_in d && osp_in sp
    | VInline items pre _ _ d sp =>
      forallb (fun kv => key_in (fst kv) && item_in (snd kv)) items && raw_in pre && decor_in d && osp_in sp
    end
  with item_in (it : item) : bool :=
    match it with
    | INone => true
    | IValue v => value_in v
    | ITable t => tbl_in t
    | IAot ts sp => forallb tbl_in ts && osp_in sp
    end
  with tbl_in (t : tbl) : bool :=
    match t with
    | Tbl items d _ _ _ sp =>
      forallb (fun kv => key_in (fst kv) && item_in (snd kv)) items && decor_in d && osp_in sp
    end.

  Definition kv_in (kv : key * item) : bool := key_in (fst kv) && item_in (snd kv).
  Definition items_in (m : kvs) : bool := forallb kv_in m.
End In.

Definition ospan_none (o : ospan) : bool := match o with None => true | Some _ => false end.

(* ---- nesting ------------------------------------------------------------------------------------ *)
(* the span of a key: its repr *)
Definition kspan_in (lo hi : N) (k : key) : bool := oraw_in lo hi (k_repr k).

(* Values.  An array or a braces-delimited inline table has a span, and EVERYTHING stored inside it
   (elements, their decor, keys, trailing text) lies inside that span.  An inline table made of a
   dotted key (`a.b = 1` inside braces) spans from its first key to the end of its last value; the
   reprs of its keys and the spans of its values lie inside (decor such as the blanks after the last
   value does not).  Recursively.  (An implicit inline table is one made of a dotted key.) *)
Definition dnest (a b : N) (items : list (key * item)) : bool :=
  forallb (fun kv => kspan_in a b (fst kv) && osp_in a b (item_span (snd kv))) items.

Fixpoint vnest (v : value) : bool :=
  match v with
  | VScalar _ _ _ => true
  | VArray vals tr _ _ sp =>
    match sp with
    | Some (a, b) => forallb (item_in a b) vals && raw_in a b tr
    | None => false
    end && forallb inest vals
  | VInline items pre im dt _ sp =>
    match sp with
    | Some (a, b) => if dt then dnest a b items else forallb (kv_in a b) items && raw_in a b pre
    | None => false
    end && (negb im || dt) && forallb (fun kv => inest (snd kv)) items
  end
with inest (it : item) : bool :=
  match it with
  | IValue v => vnest v
  | _ => false
  end.

(* Tables.  Where a table has a span, the repr of every key holding a value and that value's span lie
   inside the table's span ("every key/value of a table section lies inside the table span").  Sub-tables
   are not required to lie inside their tree parent: a table opened by its own header lies elsewhere
   (`[a]` ... `[a.b]`), and so may a table made of a dotted key (see `dotted_inside` below: refuted).
   Implicit super-tables have no span.  A table made of a dotted key always has a span, covering its own
   keys and values (same clause).  The elements of an array of tables (never tables made of dotted keys)
   lie inside the array's span, which starts where its first element starts. *)
Definition aot_nest (spans : list ospan) (asp : ospan) : bool :=
  match asp with
  | Some (a, b) =>
    match spans with
    | Some (x, _) :: _ => (x =? a)%N
    | _ => false
    end && forallb (osp_in a b) spans
  | None => match spans with [] => true | _ => false end
  end.

Definition tn_value (sp : ospan) (k : key) (v : value) : bool :=
  match sp with
  | Some (a, b) => kspan_in a b k && osp_in a b (value_span v)
  | None => true
  end && vnest v.

Fixpoint tnest (t : tbl) : bool :=
  match t with
  | Tbl items _ _ dt _ sp =>
    (negb dt || negb (ospan_none sp))
    && forallb (fun kv =>
               match snd kv with
               | INone => true
               | IValue v => tn_value sp (fst kv) v
               | ITable sub => tnest sub
               | IAot ts asp =>
                 aot_nest (map t_span ts) asp && forallb (fun e => negb (t_dotted e)) ts && forallb tnest ts
               end) items
  end.

(* the stronger reading "a table made of a dotted key lies inside the span of its parent in the tree" is
   false (Props/C14spans.v C14_dotted_table_inside_parent_refuted) *)
Fixpoint dotted_inside (t : tbl) : bool :=
  match t with
  | Tbl items _ _ _ _ sp =>
    forallb (fun kv =>
               match snd kv with
               | ITable sub =>
                 (if t_dotted sub
                  then match sp with Some (a, b) => osp_in a b (t_span sub) | None => true end
                  else true) && dotted_inside sub
               | IAot ts _ => forallb dotted_inside ts
               | _ => true
               end) items
  end.

(* ---- no span left ---------------------------------------------------------------------------------- *)
Definition raw_nospan (r : raw) : bool := match r with RSpanned _ _ => false | _ => true end.
Definition oraw_nospan (o : option raw) : bool := match o with Some r => raw_nospan r | None => true end.
Definition decor_nospan (d : decor) : bool := oraw_nospan (d_prefix d) && oraw_nospan (d_suffix d).
Definition key_nospan (k : key) : bool :=
  oraw_nospan (k_repr k) && decor_nospan (k_leaf k) && decor_nospan (k_dotted k).

Fixpoint value_nospan (v : value) : bool :=
  match v with
  | VScalar _ r d => oraw_nospan r && decor_nospan d
  | VArray vals tr _ d sp => forallb item_nospan vals && raw_nospan tr && decor_nospan d && ospan_none sp
  | VInline items pre _ _ d sp =>
    forallb (fun kv => key_nospan (fst kv) && item_nospan (snd kv)) items
    && raw_nospan pre && decor_nospan d && ospan_none sp
  end
with item_nospan (it : item) : bool :=
  match it with
  | INone => true
  | IValue v => value_nospan v
  | ITable t => tbl_nospan t
  | IAot ts sp => forallb tbl_nospan ts && ospan_none sp
  end
with tbl_nospan (t : tbl) : bool :=
  match t with
  | Tbl items d _ _ _ sp =>
    forallb (fun kv => key_nospan (fst kv) && item_nospan (snd kv)) items && decor_nospan d && ospan_none sp
  end.
