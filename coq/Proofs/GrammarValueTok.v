(* Proofs/GrammarValueTok.v — C01/C02 layer L2: the scalar alternatives of `val` inside
   value.rs's dispatch.  First bytes of the tokens, what the follow set of a value (`vfollow`)
   implies for each token's own maximal-munch condition, and the ordered choice
   date_time / float / integer of the number arm: date_time and float fail WITHOUT commitment on
   the texts of the later alternatives. *)
From TV Require Import Base.Prelude Base.Winnow Gen.Consts Spec.Abnf Spec.Lex Spec.Syntax.
From TV Require Import Model.Strings Model.Datetime Model.Numbers Model.Tree Model.Parse.
From TV Require Import Proofs.NumbersRT_Lex Proofs.NumbersRT_Value.
From TV Require Import Proofs.LexEquivBase Proofs.LexEquivTrivia Proofs.LexEquivInt Proofs.LexEquivFloat
                       Proofs.LexEquivString Proofs.LexEquivDatetime
                       Proofs.LexEquivKey.
Require Import Lia ZifyBool ZifyN ZifyNat.

(* ================================================================================================ *)
(* the follow set of a value                                                                        *)
(* ================================================================================================ *)
Definition term_byte (b : byte) : Prop := b = x23 \/ b = x0a \/ b = x0d \/ b = x2c \/ b = x5d \/ b = x7d.

Lemma vfollow_head r : vfollow r ->
  r = [] \/ exists b r', r = b :: r' /\ (wschar b = true \/ term_byte b).
Proof.
  intros (w & r' & -> & Hw & Hs). destruct w as [|b w].
  - destruct r' as [|b r']; [auto|]. right. exists b, r'. split; [reflexivity|]. right. exact Hs.
  - right. exists b, (w ++ r'). split; [reflexivity|]. left.
    unfold ws_tok, all in Hw. cbn [forallb] in Hw. apply andb_true_iff in Hw as [Hb _]. exact Hb.
Qed.

Lemma vfollow_tail b r : vfollow (b :: r) -> wschar b = true -> vfollow r.
Proof.
  intros (w & r' & E & Hw & Hs) Hb. destruct w as [|c w].
  - cbn [app] in E. subst r'. cbn [vstop] in Hs. exfalso. revert Hb.
    destruct Hs as [-> | [-> | [-> | [-> | [-> | ->]]]]]; discriminate.
  - injection E as -> ->. exists w, r'. split; [reflexivity|]. split; [|exact Hs].
    unfold ws_tok, all in *. cbn [forallb] in Hw. apply andb_true_iff in Hw as [_ Hw]. exact Hw.
Qed.

Lemma vfollow_ws w r : ws_tok w -> vfollow r -> vfollow (w ++ r).
Proof.
  intros Hw (w' & r' & -> & Hw' & Hs). exists (w ++ w'), r'. split; [apply app_assoc|]. split; [|exact Hs].
  unfold ws_tok, all in *. rewrite forallb_app, Hw, Hw'. reflexivity.
Qed.

Lemma vstop_follow r : vstop r -> vfollow r.
Proof. intro H. exists [], r. split; [reflexivity|]. split; [reflexivity|exact H]. Qed.

Ltac follow_bytes H :=
  destruct (vfollow_head _ H) as [-> | (b & r' & -> & [Hb | [-> | [-> | [-> | [-> | [-> | ->]]]]]])];
  [exact I| |reflexivity|reflexivity|reflexivity|reflexivity|reflexivity|reflexivity].

Lemma vfollow_unquoted r : vfollow r -> stops unquoted_key_char r.
Proof. intro H. follow_bytes H. cbn [stops]. revert Hb. cls. lia. Qed.

Lemma vfollow_us_digit r : vfollow r -> stops (us_or Abnf.digit) r.
Proof. intro H. apply unquoted_stops_digit, vfollow_unquoted, H. Qed.

Lemma vfollow_is_e r : vfollow r -> stops LexEquivFloat.is_e r.
Proof. intro H. follow_bytes H. cbn [stops]. unfold LexEquivFloat.is_e. revert Hb. cls. lia. Qed.

Lemma vfollow_dot r : vfollow r -> stops (byte_eqb x2e) r.
Proof. intro H. follow_bytes H. cbn [stops]. revert Hb. cls. lia. Qed.

Lemma vfollow_no_quote r : vfollow r -> no_quote_follows r.
Proof.
  intro H. split; follow_bytes H; cbn [stops]; revert Hb; cls; lia.
Qed.

Lemma wschar_cases b : wschar b = true -> b = x20 \/ b = x09.
Proof.
  intro H. assert (E : b2n b = 32%N \/ b2n b = 9%N) by (revert H; cls; lia).
  destruct E as [E | E]; [left|right]; apply b2n_inj; rewrite E; reflexivity.
Qed.

Lemma vfollow_dt_stop r : vfollow r -> dt_stop r.
Proof.
  intro H. destruct (vfollow_head _ H) as [-> | (b & r' & -> & [Hb | Ht])]; [exact I| |].
  - pose proof (vfollow_tail _ _ H Hb) as H'. cbn [dt_stop].
    destruct (wschar_cases b Hb) as [-> | ->].
    + repeat split; try discriminate. intros _.
      destruct (vfollow_head _ H') as [-> | (c & r'' & -> & [Hc | [-> | [-> | [-> | [-> | [-> | ->]]]]]])];
        try reflexivity. revert Hc. cls. lia.
    + repeat split; discriminate.
  - cbn [dt_stop]. destruct Ht as [-> | [-> | [-> | [-> | [-> | ->]]]]]; repeat split; discriminate.
Qed.

Lemma vfollow_wscn_stop_after w r : wscn_tok w -> vstop r -> vfollow (w ++ r).
Proof.
  intros Hw Hr. destruct (wscn_split w Hw) as (w0 & t' & -> & Hw0 & Ht'). rewrite <- app_assoc.
  apply vfollow_ws; [exact Hw0|]. apply vstop_follow.
  destruct Ht' as [-> | (c & nl & t'' & -> & Hc & Hn & _)]; [exact Hr|].
  destruct Hc as [-> | (u & -> & _)].
  - cbn [app]. destruct (newline_tok_head nl Hn) as (b & tl & -> & [-> | ->]); cbn [app vstop]; auto.
  - cbn [app vstop]. auto.
Qed.

(* ================================================================================================ *)
(* first bytes                                                                                      *)
(* ================================================================================================ *)
Lemma string_tok_head t s : string_tok t s -> exists t', t = x22 :: t' \/ t = x27 :: t'.
Proof.
  intros [(_ & nl & body & -> & _) | [(_ & body & -> & _) | [(_ & nl & body & -> & _) | (_ & body & -> & _)]]];
    eexists; cbn [app]; eauto.
Qed.

Lemma sign_cases sg neg : sign sg neg -> sg = [] \/ sg = [x2b] \/ sg = [x2d].
Proof. intros [[-> _] | [[-> _] | [-> _]]]; auto. Qed.

(* bytes of a digit run with underscores *)
Lemma remove_us_bytes u ds : remove_us u = ds -> forallb Abnf.digit ds = true ->
  forallb (fun c => Abnf.digit c || byte_eqb c x5f) u = true.
Proof.
  intros <-. unfold remove_us, underscore. induction u as [|c u IH]; [reflexivity|]. cbn [filter forallb].
  destruct (byte_eqb c x5f) eqn:E; cbn [negb].
  - intro H. rewrite orb_true_r. apply IH, H.
  - cbn [forallb]. intro H. apply andb_true_iff in H as [H1 H2]. rewrite H1. apply IH, H2.
Qed.

Lemma digit_is_digit b : Abnf.digit b = is_digit b.
Proof. reflexivity. Qed.

(* what stops a digit run without letting date_time commit: no digit, no "-", no ":" *)
Definition nd_stop (r : bytes) : Prop :=
  match r with [] => True | b :: _ => is_digit b = false /\ b <> dash /\ b <> colon end.

Lemma vfollow_nd_stop r : vfollow r -> nd_stop r.
Proof.
  intro H. destruct (vfollow_head _ H) as [-> | (b & r' & -> & [Hb | Ht])]; [exact I| |]; cbn [nd_stop].
  - destruct (wschar_cases b Hb) as [-> | ->]; repeat split; discriminate.
  - destruct Ht as [-> | [-> | [-> | [-> | [-> | ->]]]]]; repeat split; discriminate.
Qed.

Lemma no_dt_run u r : forallb (fun c => Abnf.digit c || byte_eqb c x5f) u = true -> nd_stop r -> no_dt (u ++ r).
Proof.
  intros Hu Hr. induction u as [|c u IH].
  - cbn [app]. destruct r as [|b r]; [exact I|]. cbn [no_dt]. destruct Hr as (E & Hr). rewrite E. exact Hr.
  - cbn [forallb] in Hu. apply andb_true_iff in Hu as [Hc Hu]. cbn [app no_dt].
    destruct (is_digit c) eqn:E; [apply IH, Hu|].
    rewrite digit_is_digit, E in Hc. cbn [orb] in Hc. apply byte_eqb_eq in Hc. subst c. split; discriminate.
Qed.

Lemma unsigned_bytes u ds : unsigned_dec_int u ds -> forallb (fun c => Abnf.digit c || byte_eqb c x5f) u = true.
Proof. intro H. destruct (unsigned_facts u ds H) as (_ & Hd & Hr & _). apply (remove_us_bytes u ds Hr Hd). Qed.

Lemma no_dt0_sign b s : is_digit b = false -> no_dt0 (b :: s).
Proof. intro H. cbn [no_dt0]. rewrite H. exact I. Qed.

Lemma no_dt0_digits b u r : is_digit b = true -> no_dt (u ++ r) -> no_dt0 ((b :: u) ++ r).
Proof. intros H Hn. cbn [app no_dt0]. rewrite H. exact Hn. Qed.

Lemma unsigned_no_dt0 u ds r : unsigned_dec_int u ds -> nd_stop r -> no_dt0 (u ++ r).
Proof.
  intros Hu Hr. pose proof (unsigned_bytes u ds Hu) as Hb.
  destruct (unsigned_facts u ds Hu) as (_ & _ & _ & _ & b & u' & -> & Hd).
  cbn [forallb] in Hb. apply andb_true_iff in Hb as [_ Hb].
  apply no_dt0_digits; [exact Hd|]. apply no_dt_run; assumption.
Qed.

Lemma integer_no_dt0 t z r : integer_tok t z -> nd_stop r -> no_dt0 (t ++ r).
Proof.
  intros [(sg & neg & u & ds & -> & Hs & Hu & _) | Hp] Hr.
  - destruct (sign_cases sg neg Hs) as [-> | [-> | ->]].
    + cbn [app]. apply (unsigned_no_dt0 u ds r Hu Hr).
    + cbn [app]. apply no_dt0_sign. reflexivity.
    + cbn [app]. apply no_dt0_sign. reflexivity.
  - assert (E : exists c u, t = x30 :: c :: u /\ is_digit c = false /\ c <> dash /\ c <> colon).
    { destruct Hp as [(u & ds & -> & _) | [(u & ds & -> & _) | (u & ds & -> & _)]];
        eexists _, u; (split; [reflexivity|]); repeat split; discriminate. }
    destruct E as (c & u & -> & Hc & Hc'). cbn [app no_dt0 no_dt]. change (is_digit x30) with true. cbv iota.
    rewrite Hc. exact Hc'.
Qed.

Definition nd_head (tl : bytes) : Prop :=
  match tl with [] => False | b :: _ => is_digit b = false /\ b <> dash /\ b <> colon end.

Lemma nd_head_stop tl r : nd_head tl -> nd_stop (tl ++ r).
Proof. destruct tl as [|b tl]; [contradiction|]. intro H. exact H. Qed.

Lemma exp_nd_head ex e x : exp_tok ex e -> nd_head (ex ++ x).
Proof.
  intro He. destruct (exp_tok_head ex e He) as (c & t' & -> & Hc & _). cbn [app nd_head].
  apply is_e_cases in Hc as [-> | ->]; repeat split; discriminate.
Qed.

Lemma frac_nd_head fr frd x : frac_tok fr frd -> nd_head (fr ++ x).
Proof. intro Hf. destruct (frac_tok_head fr frd Hf) as (t' & -> & _). cbn [app nd_head]. repeat split; discriminate. Qed.

Lemma float_no_dt0 t f r : float_tok t f -> no_dt0 (t ++ r).
Proof.
  assert (Hnum : forall sg neg ip ipd tl, sign sg neg -> unsigned_dec_int ip ipd ->
            nd_head tl -> no_dt0 ((sg ++ ip ++ tl) ++ r)).
  { intros sg neg ip ipd tl Hs Hu Ht. rewrite <- !app_assoc.
    destruct (sign_cases sg neg Hs) as [-> | [-> | ->]]; cbn [app].
    - apply (unsigned_no_dt0 ip ipd _ Hu). apply nd_head_stop, Ht.
    - apply no_dt0_sign. reflexivity.
    - apply no_dt0_sign. reflexivity. }
  intro H. inversion H as [sg neg ip ipd ex e Hs Hu He|sg neg ip ipd fr frd Hs Hu Hf|sg neg ip ipd fr frd ex e Hs Hu Hf He|sg neg Hs|sg neg Hs]; subst.
  - apply (Hnum sg neg ip ipd ex Hs Hu). rewrite <- (app_nil_r ex). apply (exp_nd_head ex e [] He).
  - apply (Hnum sg neg ip ipd fr Hs Hu). rewrite <- (app_nil_r fr). apply (frac_nd_head fr frd [] Hf).
  - apply (Hnum sg neg ip ipd (fr ++ ex) Hs Hu). apply (frac_nd_head fr frd ex Hf).
  - destruct (sign_cases sg neg Hs) as [-> | [-> | ->]]; cbn [app]; apply no_dt0_sign; reflexivity.
  - destruct (sign_cases sg neg Hs) as [-> | [-> | ->]]; cbn [app]; apply no_dt0_sign; reflexivity.
Qed.

Lemma is_bt_fails {A} (p : parser A) i : is_bt (p i) -> fails p i.
Proof. unfold fails. destruct (p i); try contradiction. eauto. Qed.
Lemma fails_is_bt {A} (p : parser A) i : fails p i -> is_bt (p i).
Proof. intros (e & j & ->). exact I. Qed.

Lemma date_time_fails_int i t z r : integer_tok t z -> rest i = t ++ r -> vfollow r -> fails date_time i.
Proof.
  intros Ht H Hr. apply is_bt_fails, date_time_bt0. rewrite H. apply (integer_no_dt0 t z r Ht), vfollow_nd_stop, Hr.
Qed.

Lemma date_time_fails_float i t f r : float_tok t f -> rest i = t ++ r -> fails date_time i.
Proof. intros Ht H. apply is_bt_fails, date_time_bt0. rewrite H. apply (float_no_dt0 t f r Ht). Qed.

(* ---- float fails without commitment on an integer ------------------------------------------------- *)

Lemma float_tail_fails i : stops LexEquivFloat.is_e (rest i) -> stops (byte_eqb x2e) (rest i) -> fails float_tail i.
Proof.
  intros He Hd. unfold float_tail. apply alt_fails; [apply pvoid_fails, exp_fails, He|].
  apply bind_fails, frac_fails, Hd.
Qed.

Lemma float__fails_after_int i sg neg u ds r :
  sign sg neg -> unsigned_dec_int u ds -> rest i = (sg ++ u) ++ r ->
  stops (us_or Abnf.digit) r -> stops LexEquivFloat.is_e r -> stops (byte_eqb x2e) r -> fails float_ i.
Proof.
  intros Hs Hu H Hr He Hd. unfold fails. rewrite float__unfold. apply unchecked_fails, taken_fails.
  eapply bind_ok_fails; [apply (dec_int_complete i sg neg u ds r Hs Hu H Hr)|].
  apply float_tail_fails; rewrite (rest_adv _ _ _ H); assumption.
Qed.

Lemma one_digit_unsigned b : Abnf.digit b = true -> unsigned_dec_int [b] [b].
Proof. intro H. left. exists b. auto. Qed.

Lemma float_fails_int i t z r : integer_tok t z -> rest i = t ++ r -> vfollow r -> fails float i.
Proof.
  intros Ht H Hr. apply is_bt_fails. apply float_bt.
  - apply fails_is_bt. destruct Ht as [(sg & neg & u & ds & -> & Hs & Hu & _) | Hp].
    + apply (float__fails_after_int i sg neg u ds r Hs Hu H);
        [apply vfollow_us_digit|apply vfollow_is_e|apply vfollow_dot]; exact Hr.
    + assert (E : exists c u, t = [] ++ [x30] ++ c :: u /\ (c = x78 \/ c = x6f \/ c = x62)).
      { destruct Hp as [(u & ds & -> & _) | [(u & ds & -> & _) | (u & ds & -> & _)]]; eexists _, u; (split; [reflexivity|auto]). }
      destruct E as (c & u & -> & Hc).
      apply (float__fails_after_int i [] false [x30] [x30] ((c :: u) ++ r)
               (or_introl (conj eq_refl eq_refl)) (one_digit_unsigned x30 eq_refl)).
      * rewrite H. reflexivity.
      * destruct Hc as [-> | [-> | ->]]; reflexivity.
      * destruct Hc as [-> | [-> | ->]]; reflexivity.
      * destruct Hc as [-> | [-> | ->]]; reflexivity.
  - apply special_float_bt. rewrite H.
    assert (E : exists sg neg b tl, sign sg neg /\ t ++ r = sg ++ b :: tl /\ is_digit b = true).
    { destruct Ht as [(sg & neg & u & ds & -> & Hs & Hu & _) | Hp].
      - destruct (unsigned_facts u ds Hu) as (_ & _ & _ & _ & b & u' & -> & Hb).
        exists sg, neg, b, (u' ++ r). split; [exact Hs|]. split; [rewrite <- app_assoc; reflexivity|exact Hb].
      - exists [], false, x30. destruct Hp as [(u & ds & -> & _) | [(u & ds & -> & _) | (u & ds & -> & _)]];
          eexists; (split; [left; auto|]); split; reflexivity. }
    destruct E as (sg & neg & b & tl & Hs & -> & Hb).
    assert (Hns : NumbersRT_Lex.is_sign b = false).
    { unfold NumbersRT_Lex.is_sign. destruct (digit_not_sign b Hb) as [-> ->]. reflexivity. }
    assert (Hin : b <> x69 /\ b <> x6e) by (split; intros ->; discriminate Hb).
    destruct (sign_cases sg neg Hs) as [-> | [-> | ->]]; cbn [app].
    + rewrite Hns. exact Hin.
    + change (NumbersRT_Lex.is_sign x2b) with true. cbv iota. exact Hin.
    + change (NumbersRT_Lex.is_sign x2d) with true. cbv iota. exact Hin.
Qed.

(* ================================================================================================ *)
(* value.rs: the dispatch on the first byte                                                         *)
(* ================================================================================================ *)
Definition value_arm (vr : parser value) (b : byte) : parser value :=
  if byte_eqb b QUOTATION_MARK || byte_eqb b APOSTROPHE then pmap (fun s => scalar_value (SString s)) string_
  else if byte_eqb b ARRAY_OPEN then check_recursion (array vr)
  else if byte_eqb b INLINE_TABLE_OPEN then check_recursion (inline_table vr)
  else if in_class VALUE_NUMBER_START b then number_arm
  else if byte_eqb b x5f then context (pmap (fun z => scalar_value (SInt z)) integer)
  else if byte_eqb b x2e then context (pmap (fun f => scalar_value (SFloat f)) float)
  else if byte_eqb b x74 then context (pmap (fun v => scalar_value (SBool v)) true_)
  else if byte_eqb b x66 then context (pmap (fun v => scalar_value (SBool v)) false_)
  else if byte_eqb b x69 then context (pmap (fun f => scalar_value (SFloat f)) inf)
  else if byte_eqb b x6e then context (pmap (fun f => scalar_value (SFloat f)) nan)
  else context fail.

Lemma value_body_arm vr i b tl : rest i = b :: tl -> value_body vr i = value_arm vr b i.
Proof. intro H. unfold value_body, bind, context at 1, peek, any. rewrite H. reflexivity. Qed.

Lemma value_body_empty vr i : rest i = [] -> fails (value_body vr) i.
Proof. intro H. unfold fails, value_body, bind, context at 1, peek, any. rewrite H. eauto. Qed.

(* the value parser fails without commitment in front of "]" "," "}" (what `separated` relies on
   to end a list and to give back a trailing separator) *)
Lemma value_arm_close vr b : b = x5d \/ b = x2c \/ b = x7d -> value_arm vr b = context fail.
Proof. intros [-> | [-> | ->]]; reflexivity. Qed.

Lemma value_body_close vr i b tl : rest i = b :: tl -> b = x5d \/ b = x2c \/ b = x7d -> fails (value_body vr) i.
Proof.
  intros H Hb. unfold fails. rewrite (value_body_arm vr i b tl H), (value_arm_close vr b Hb).
  unfold context, fail. eauto.
Qed.

(* ---- completeness of the scalar arms ------------------------------------------------------------------ *)
Lemma value_body_string vr i t s r : string_tok t s -> rest i = t ++ r -> vfollow r ->
  value_body vr i = Ok (scalar_value (SString s)) (adv t i).
Proof.
  intros Ht H Hr. destruct (string_tok_head t s Ht) as (t' & [E | E]); rewrite E in H.
  - rewrite (value_body_arm vr i x22 _ H). change (value_arm vr x22) with (pmap (fun s => scalar_value (SString s)) string_).
    rewrite <- E in H. apply (pmap_ok (fun x => scalar_value (SString x))). apply (string_complete i t s r Ht H), vfollow_no_quote, Hr.
  - rewrite (value_body_arm vr i x27 _ H). change (value_arm vr x27) with (pmap (fun s => scalar_value (SString s)) string_).
    rewrite <- E in H. apply (pmap_ok (fun x => scalar_value (SString x))). apply (string_complete i t s r Ht H), vfollow_no_quote, Hr.
Qed.

Lemma value_body_boolean vr i t b r : boolean_tok t b -> rest i = t ++ r ->
  value_body vr i = Ok (scalar_value (SBool b)) (adv t i).
Proof.
  intros [[-> ->] | [-> ->]] H.
  - rewrite (value_body_arm vr i x74 _ H).
    change (value_arm vr x74) with (context (pmap (fun v => scalar_value (SBool v)) true_)).
    apply context_ok, (pmap_ok (fun v => scalar_value (SBool v))), (true_complete i r H).
  - rewrite (value_body_arm vr i x66 _ H).
    change (value_arm vr x66) with (context (pmap (fun v => scalar_value (SBool v)) false_)).
    apply context_ok, (pmap_ok (fun v => scalar_value (SBool v))), (false_complete i r H).
Qed.

Lemma digit_num_start b : Abnf.digit b = true -> num_start b = true.
Proof. intro H. unfold num_start. rewrite <- digit_is_digit, H. reflexivity. Qed.

Lemma value_body_date_time vr i t d r : date_time_tok t d -> rest i = t ++ r -> vfollow r ->
  value_body vr i = Ok (scalar_value (SDatetime d)) (adv t i).
Proof.
  intros Ht H Hr. destruct (date_time_tok_head t d Ht) as (b & t' & E & Hb). pose proof H as H'. rewrite E in H'. cbn [app] in H'.
  rewrite (value_body_number vr i b _ H' (digit_num_start b Hb)).
  unfold number_arm. apply alt_ok, (pmap_ok (fun x => scalar_value (SDatetime x))). apply (date_time_complete i t d r Ht H), vfollow_dt_stop, Hr.
Qed.

Lemma sign_num_start sg neg b tl x : sign sg neg -> Abnf.digit b = true -> sg ++ b :: tl = x ->
  exists c tl', x = c :: tl' /\ num_start c = true.
Proof.
  intros Hs Hb <-. destruct (sign_cases sg neg Hs) as [-> | [-> | ->]]; cbn [app]; eexists _, _; split; try reflexivity.
  apply digit_num_start, Hb.
Qed.

Lemma dec_float_start sg neg ip ipd tl : sign sg neg -> unsigned_dec_int ip ipd ->
  exists c tl', sg ++ ip ++ tl = c :: tl' /\ num_start c = true.
Proof.
  intros Hs Hu. destruct (unsigned_facts ip ipd Hu) as (_ & _ & _ & _ & b & u' & -> & Hb).
  destruct (sign_num_start sg neg b (u' ++ tl) _ Hs Hb eq_refl) as (c & tl' & E & Hc).
  exists c, tl'. split; [rewrite <- E; reflexivity|exact Hc].
Qed.

Lemma integer_tok_start t z : integer_tok t z -> exists c tl, t = c :: tl /\ num_start c = true.
Proof.
  intros [(sg & neg & u & ds & -> & Hs & Hu & _) | Hp].
  - destruct (unsigned_facts u ds Hu) as (_ & _ & _ & _ & b & u' & -> & Hb). apply (sign_num_start sg neg b u' _ Hs Hb eq_refl).
  - destruct Hp as [(u & ds & -> & _) | [(u & ds & -> & _) | (u & ds & -> & _)]]; eexists _, _; split; reflexivity.
Qed.

Lemma value_body_integer vr i t z r : integer_tok t z -> in_i64 z = true -> rest i = t ++ r -> vfollow r ->
  value_body vr i = Ok (scalar_value (SInt z)) (adv t i).
Proof.
  intros Ht Hz H Hr. destruct (integer_tok_start t z Ht) as (c & tl & E & Hc). pose proof H as H'. rewrite E in H'.
  rewrite (value_body_number vr i c _ H' Hc). apply number_arm_int.
  - apply fails_is_bt, (date_time_fails_int i t z r Ht H Hr).
  - apply fails_is_bt, (float_fails_int i t z r Ht H Hr).
  - apply (integer_complete i t z r Ht Hz H), vfollow_unquoted, Hr.
Qed.

Lemma value_body_float vr i t f r : float_tok t f -> finite f -> rest i = t ++ r -> vfollow r ->
  value_body vr i = Ok (scalar_value (SFloat f)) (adv t i).
Proof.
  intros Ht Hf H Hr.
  assert (Hfl : float i = Ok f (adv t i))
    by (apply (float_complete i t f r Ht Hf H); [apply vfollow_us_digit|apply vfollow_is_e]; exact Hr).
  assert (Hnum : forall c tl, t = c :: tl -> num_start c = true ->
            value_body vr i = Ok (scalar_value (SFloat f)) (adv t i)).
  { intros c tl E Hc. pose proof H as H'. rewrite E in H'. rewrite (value_body_number vr i c _ H' Hc).
    apply number_arm_float; [|exact Hfl]. apply fails_is_bt, (date_time_fails_float i t f r Ht H). }
  assert (Hdec : forall sg neg ip ipd tl, sign sg neg -> unsigned_dec_int ip ipd -> t = sg ++ ip ++ tl ->
            value_body vr i = Ok (scalar_value (SFloat f)) (adv t i)).
  { intros sg neg ip ipd tl Hs Hu E. destruct (dec_float_start sg neg ip ipd tl Hs Hu) as (c & tl' & E' & Hc).
    apply (Hnum c tl'); [rewrite E; exact E'|exact Hc]. }
  inversion Ht as [sg neg ip ipd ex e Hs Hu He|sg neg ip ipd fr frd Hs Hu Hfr|sg neg ip ipd fr frd ex e Hs Hu Hfr He|sg neg Hs|sg neg Hs];
    subst.
  - apply (Hdec sg neg ip ipd ex Hs Hu eq_refl).
  - apply (Hdec sg neg ip ipd fr Hs Hu eq_refl).
  - apply (Hdec sg neg ip ipd (fr ++ ex) Hs Hu eq_refl).
  - destruct (sign_cases sg neg Hs) as [-> | [-> | ->]].
    + cbn [app] in *. rewrite (value_body_arm vr i x69 _ H).
      change (value_arm vr x69) with (context (pmap (fun f => scalar_value (SFloat f)) inf)).
      destruct Hs as [[_ ->] | [[E _] | [E _]]]; try discriminate E.
      apply context_ok, (pmap_ok (fun x => scalar_value (SFloat x))). unfold inf. apply (pvalue_ok _ _ _ INF), (lit_ok INF i r H).
    + apply (Hnum x2b _ eq_refl eq_refl).
    + apply (Hnum x2d _ eq_refl eq_refl).
  - destruct (sign_cases sg neg Hs) as [-> | [-> | ->]].
    + cbn [app] in *. rewrite (value_body_arm vr i x6e _ H).
      change (value_arm vr x6e) with (context (pmap (fun f => scalar_value (SFloat f)) nan)).
      destruct Hs as [[_ ->] | [[E _] | [E _]]]; try discriminate E.
      apply context_ok, (pmap_ok (fun x => scalar_value (SFloat x))). unfold nan. apply (pvalue_ok _ _ _ NAN), (lit_ok NAN i r H).
    + apply (Hnum x2b _ eq_refl eq_refl).
    + apply (Hnum x2d _ eq_refl eq_refl).
Qed.
