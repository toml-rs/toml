(* Proofs/PrintBackDespan.v — C03: `despan` (ImDocument::into_mut) substitutes the slice of the source
   for every span; when it succeeds (C14: always for a parsed document) its result is the total
   substitution `ttbl`, so the printed text `print_doc s d` of Extract/Commands.v is `render s d`. *)
From TV Require Import Base.Prelude.
From TV Require Import Model.Tree Model.Document Model.Encode.
From TV Require Import Proofs.SpansDefs Proofs.SpansDespan Proofs.PrintBackBase Proofs.PrintBackValue Proofs.PrintBackDoc.

Section D.
  Variable s : bytes.

  Lemma oraw_despan_t o o' : oraw_despan s o = Some o' -> o' = toraw s o.
  Proof.
    destruct o as [r|]; cbn [oraw_despan toraw]; intro H; [|injection H as <-; reflexivity].
    destruct (raw_despan s r) as [r'|] eqn:R; [|discriminate]. injection H as <-. rewrite (raw_despan_traw s r r' R). reflexivity.
  Qed.

  Lemma decor_despan_t d d' : decor_despan s d = Some d' -> d' = tdecor s d.
  Proof.
    unfold decor_despan, tdecor. destruct (oraw_despan s (d_prefix d)) as [p|] eqn:P; [|discriminate].
    destruct (oraw_despan s (d_suffix d)) as [x|] eqn:S; [|discriminate]. intro H. injection H as <-.
    rewrite (oraw_despan_t _ _ P), (oraw_despan_t _ _ S). reflexivity.
  Qed.

  Lemma key_despan_t k k' : key_despan s k = Some k' -> k' = tkey s k.
  Proof.
    unfold key_despan, tkey. destruct (decor_despan s (k_leaf k)) as [l|] eqn:L; [|discriminate].
    destruct (decor_despan s (k_dotted k)) as [d|] eqn:D; [|discriminate].
    destruct (oraw_despan s (k_repr k)) as [r|] eqn:R; [|discriminate]. intro H. injection H as <-.
    rewrite (oraw_despan_t _ _ R), (decor_despan_t _ _ L), (decor_despan_t _ _ D). reflexivity.
  Qed.

  Lemma omap_list_map {A B} (f : A -> option B) (g : A -> B) : forall l l',
    Forall (fun a => forall b, f a = Some b -> b = g a) l -> omap_list f l = Some l' -> l' = map g l.
  Proof.
    induction l as [|a l IH]; intros l' Hf H; cbn [omap_list] in H.
    - injection H as <-. reflexivity.
    - inversion Hf as [|? ? Ha Hl]; subst. destruct (f a) as [b|] eqn:Fa; [|discriminate].
      change ((fix go (l : list A) : option (list B) :=
                 match l with [] => Some [] | a :: tl => match f a, go tl with Some b, Some r => Some (b :: r) | _, _ => None end end) l)
        with (omap_list f l) in H.
      destruct (omap_list f l) as [r|] eqn:R; [|discriminate]. injection H as <-. cbn [map].
      rewrite (Ha _ eq_refl), (IH _ Hl eq_refl). reflexivity.
  Qed.

  Lemma kvs_despan_t (items : list (key * item)) items' :
    Forall (fun kv => forall i', item_despan s (snd kv) = Some i' -> i' = titem s (snd kv)) items ->
    omap_list (kv_despan s) items = Some items' -> items' = map (tkv s) items.
  Proof.
    intros IH H. eapply omap_list_map; [|exact H]. eapply Forall_impl; [|exact IH].
    intros [k0 i0] Hi [k i] E. cbn [kv_despan snd] in *.
    destruct (key_despan s k0) as [k1|] eqn:K; [|discriminate]. destruct (item_despan s i0) as [i1|] eqn:I0; [|discriminate].
    injection E as <- <-. unfold tkv. cbn [fst snd]. rewrite (key_despan_t _ _ K), (Hi _ eq_refl). reflexivity.
  Qed.

  Lemma titem_aot ts sp : titem s (IAot ts sp) = IAot (map (ttbl s) ts) None.
  Proof. reflexivity. Qed.

  Lemma tree_despan_t :
    (forall v v', value_despan s v = Some v' -> v' = tvalue s v)
    /\ (forall it it', item_despan s it = Some it' -> it' = titem s it)
    /\ (forall t t', tbl_despan s t = Some t' -> t' = ttbl s t).
  Proof.
    apply tree_ind3.
    - intros x r d v' H. cbn [value_despan] in H. destruct (oraw_despan s r) as [r'|] eqn:R; [|discriminate].
      destruct (decor_despan s d) as [d'|] eqn:D; [|discriminate]. injection H as <-.
      rewrite tvalue_scalar, (oraw_despan_t _ _ R), (decor_despan_t _ _ D). reflexivity.
    - intros vals tr c d sp IH v' H. rewrite value_despan_array in H.
      destruct (omap_list (item_despan s) vals) as [vals'|] eqn:V; [|discriminate].
      destruct (raw_despan s tr) as [tr'|] eqn:T; [|discriminate].
      destruct (decor_despan s d) as [d'|] eqn:D; [|discriminate]. injection H as <-.
      rewrite tvalue_array, (omap_list_map _ _ _ _ IH V), (raw_despan_traw _ _ _ T), (decor_despan_t _ _ D). reflexivity.
    - intros items pre im dt d sp IH v' H. rewrite value_despan_inline in H.
      destruct (omap_list (kv_despan s) items) as [items'|] eqn:V; [|discriminate].
      destruct (raw_despan s pre) as [pre'|] eqn:T; [|discriminate].
      destruct (decor_despan s d) as [d'|] eqn:D; [|discriminate]. injection H as <-.
      rewrite tvalue_inline, (kvs_despan_t _ _ IH V), (raw_despan_traw _ _ _ T), (decor_despan_t _ _ D). reflexivity.
    - intros it' H. injection H as <-. reflexivity.
    - intros v IH it' H. change (optmap IValue (value_despan s v) = Some it') in H.
      destruct (value_despan s v) as [v'|] eqn:V; [|discriminate]. injection H as <-. rewrite (IH _ eq_refl). reflexivity.
    - intros t IH it' H. change (optmap ITable (tbl_despan s t) = Some it') in H.
      destruct (tbl_despan s t) as [t'|] eqn:V; [|discriminate]. injection H as <-. rewrite (IH _ eq_refl). reflexivity.
    - intros ts sp IH it' H. rewrite item_despan_aot in H. destruct (omap_list (tbl_despan s) ts) as [ts'|] eqn:V; [|discriminate].
      injection H as <-. rewrite titem_aot, (omap_list_map _ _ _ _ IH V). reflexivity.
    - intros items d im dt p sp IH t' H. rewrite tbl_despan_eq in H.
      destruct (omap_list (kv_despan s) items) as [items'|] eqn:V; [|discriminate].
      destruct (decor_despan s d) as [d'|] eqn:D; [|discriminate]. injection H as <-.
      rewrite ttbl_unfold, (kvs_despan_t _ _ IH V), (decor_despan_t _ _ D). reflexivity.
  Qed.
End D.

(* what the `rt` / `doc` commands print is `render` *)
Theorem print_doc_render s d o : print_doc s d = Some o -> o = render s d.
Proof.
  unfold print_doc, render. destruct (tbl_despan s (doc_root d)) as [r|] eqn:R; [|discriminate].
  destruct (raw_despan s (doc_trailing d)) as [t|] eqn:T; [|discriminate]. intro H. injection H as <-.
  rewrite (proj2 (proj2 (tree_despan_t s)) _ _ R), (raw_despan_traw _ _ _ T). reflexivity.
Qed.
