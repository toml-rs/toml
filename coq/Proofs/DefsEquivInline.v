(* Proofs/DefsEquivInline.v — C09 for inline tables: table_from_pairs_loop (inline_table.rs:
   table_from_pairs / descend_path) against Spec.Defs.inline_run. *)
From TV Require Import Base.Prelude Model.Tree Model.Parse Spec.Defs.
From TV Require Import Proofs.DefsEquivBase Proofs.DefsEquivKv.
From TV Require Import Proofs.KvFacts.

(* a value as the parser hands it to table_from_pairs: anything but an inline table that is
   still marked implicit (the marker of tables created by dotted keys; `table_from_pairs`
   itself returns implicit = false, so every explicitly written { .. } is closed) *)
Definition closed_value (v : value) : bool :=
  match v with VInline _ _ imp _ _ _ => negb imp | _ => true end.

(* the pairs of one inline table, values being Item::Value *)
Definition ipair : Set := list key * (key * value).
Definition to_pairs (l : list ipair) : list (list key * (key * item)) :=
  map (fun x => (fst x, (fst (snd x), IValue (snd (snd x))))) l.
Definition erase_pairs (l : list ipair) : list (list bytes * value) :=
  map (fun x => (keys (fst x) ++ [k_key (fst (snd x))], snd (snd x))) l.
Definition pairs_closed (l : list ipair) : Prop := Forall (fun x => closed_value (snd (snd x)) = true) l.

(* abstraction of the items of an inline table under construction: tables created by dotted
   keys (implicit) are tables, every other value is a closed value; non-value items (never
   stored here, excluded by `iok`) go to an arbitrary node *)
Fixpoint absi_value (v : value) : node value :=
  match v with
  | VInline items _ true _ _ _ =>
    NTab KDotted
      ((fix go (l : list (key * item)) : stree value :=
          match l with [] => [] | (k, it) :: tl => (k_key k, absi_item it) :: go tl end) items)
  | _ => NVal v
  end
with absi_item (it : item) : node value :=
  match it with
  | IValue v => absi_value v
  | _ => NAot []
  end.

Definition absi_items (m : kvs) : stree value := map (fun kv => (k_key (fst kv), absi_item (snd kv))) m.

Lemma absi_value_implicit items pre dt dec sp :
  absi_value (VInline items pre true dt dec sp) = NTab KDotted (absi_items items).
Proof.
  cbn [absi_value]. f_equal. unfold absi_items.
  induction items as [|[k it] tl IH]; [reflexivity|]. cbn [map fst snd]. rewrite <- IH. reflexivity.
Qed.

Lemma absi_value_closed v : closed_value v = true -> absi_value v = NVal v.
Proof. destruct v as [| |items pre imp dt dec sp]; try reflexivity. destruct imp; [discriminate | reflexivity]. Qed.

(* what table_from_pairs_loop maintains: only values; implicit inline tables are dotted *)
Fixpoint iok_value (v : value) : bool :=
  match v with
  | VInline items _ true dt _ _ =>
    dt && (fix go (l : list (key * item)) : bool :=
             match l with [] => true | (_, it) :: tl => iok_item it && go tl end) items
  | _ => true
  end
with iok_item (it : item) : bool :=
  match it with
  | IValue v => iok_value v
  | _ => false
  end.

Definition iok_items (m : kvs) : bool := forallb (fun kv => iok_item (snd kv)) m.

Lemma iok_value_implicit items pre dt dec sp :
  iok_value (VInline items pre true dt dec sp) = dt && iok_items items.
Proof.
  cbn [iok_value]. f_equal. unfold iok_items.
  induction items as [|[k it] tl IH]; [reflexivity|]. cbn [forallb snd]. rewrite <- IH. reflexivity.
Qed.

Lemma iok_value_closed v : closed_value v = true -> iok_value v = true.
Proof. destruct v as [| |items pre imp dt dec sp]; try reflexivity. destruct imp; [discriminate | reflexivity]. Qed.

(* association-list laws *)
Lemma absi_get m k :
  sget (absi_items m) k = match kv_get m k with Some (_, it) => Some (absi_item it) | None => None end.
Proof.
  induction m as [|[k' it] tl IH]; cbn [absi_items map fst snd sget kv_get]; [reflexivity|].
  destruct (bytes_eqb (k_key k') k); [reflexivity | exact IH].
Qed.

Lemma absi_set m k it : absi_items (kv_set m k it) = sset (absi_items m) k (absi_item it).
Proof.
  induction m as [|[k' it'] tl IH]; cbn [absi_items map fst snd sset kv_set]; [reflexivity|].
  destruct (bytes_eqb (k_key k') k); cbn [map fst snd]; [reflexivity|]. f_equal. exact IH.
Qed.

Lemma absi_push m k it : absi_items (kv_push m k it) = spush (absi_items m) (k_key k) (absi_item it).
Proof. unfold absi_items, kv_push, spush. rewrite map_app. reflexivity. Qed.

Lemma iok_get m k k' it : iok_items m = true -> kv_get m k = Some (k', it) -> iok_item it = true.
Proof. exact (kv_get_forallb (fun kv => iok_item (snd kv)) m k k' it). Qed.

Lemma iok_set m k it : iok_items m = true -> iok_item it = true -> iok_items (kv_set m k it) = true.
Proof. intros H Hi. apply kv_set_forallb; [exact H|]. intros; exact Hi. Qed.

Lemma iok_push m k it : iok_items m = true -> iok_item it = true -> iok_items (kv_push m k it) = true.
Proof. exact (kv_push_forallb (fun kv => iok_item (snd kv)) m k it). Qed.

Definition simi (r : cres kvs) (s : res (stree value)) : Prop :=
  match s with
  | ROk T' => exists m', r = COk m' /\ absi_items m' = T' /\ iok_items m' = true
  | RInvalid => exists c, r = CErr c
  | RUndecided => False
  end.

Lemma inline_leaf m dh pe k v :
  iok_items m = true -> closed_value v = true -> dh = negb pe ->
  simi (inline_insert m dh [] pe k (IValue v)) (insert_kv true [k_key k] v (absi_items m)).
Proof.
  intros Hm Hv Hd. cbn [inline_insert]. rewrite insert_kv_leaf, Hd.
  replace (Bool.eqb (negb pe) pe) with false by (destruct pe; reflexivity).
  rewrite absi_get. destruct (kv_get m (k_key k)) as [[k' it]|]; cbn [simi].
  - eexists; reflexivity.
  - eexists. split; [reflexivity|]. split.
    + rewrite absi_push. cbn [absi_item]. rewrite (absi_value_closed v Hv). reflexivity.
    + apply iok_push; [exact Hm | cbn [iok_item]; apply iok_value_closed; exact Hv].
Qed.

Lemma inline_sub k v (Hv : closed_value v = true) : forall path m dh,
  iok_items m = true -> (path = [] -> dh = true) ->
  simi (inline_insert m dh path false k (IValue v)) (insert_kv true (keys path ++ [k_key k]) v (absi_items m)).
Proof.
  induction path as [|pk ptl IH]; intros m dh Hm Hd.
  - cbn [keys map app]. apply inline_leaf; [exact Hm | exact Hv | apply Hd; reflexivity].
  - cbn [keys map app]. fold (keys ptl). rewrite insert_kv_snoc. cbn [inline_insert].
    rewrite absi_get.
    destruct (kv_get m (k_key pk)) as [[k' it]|] eqn:E.
    + pose proof (iok_get _ _ _ _ Hm E) as Hit.
      destruct it as [|v0| |]; try discriminate. cbn [absi_item iok_item] in *.
      destruct v0 as [sc r d|vals tr tc d sp|items pre imp dt dec sp].
      * cbn [absi_value simi]. eexists; reflexivity.
      * cbn [absi_value simi]. eexists; reflexivity.
      * destruct imp.
        -- rewrite absi_value_implicit. rewrite iok_value_implicit in Hit.
           apply andb_true_iff in Hit as [Hdt Hsub]. subst dt. cbn [negb].
           specialize (IH items true Hsub (fun _ => eq_refl)).
           destruct (insert_kv true (keys ptl ++ [k_key k]) v (absi_items items)) as [c'| |]; cbn [simi rbind] in *.
           ++ destruct IH as (sub' & Hr & Ha & Hm'). rewrite Hr. eexists. split; [reflexivity|]. split.
              ** rewrite absi_set. cbn [absi_item]. rewrite absi_value_implicit, Ha. reflexivity.
              ** apply iok_set; [exact Hm|]. cbn [iok_item]. rewrite iok_value_implicit, Hm'. reflexivity.
           ++ destruct IH as [c Hc]. rewrite Hc. eexists; reflexivity.
           ++ exact IH.
        -- cbn [absi_value negb simi]. eexists; reflexivity.
    + specialize (IH [] true eq_refl (fun _ => eq_refl)). change (absi_items []) with (@nil (bytes * node value)) in IH.
      destruct (insert_kv true (keys ptl ++ [k_key k]) v []) as [c'| |]; cbn [simi rbind] in *.
      * destruct IH as (sub' & Hr & Ha & Hm'). rewrite Hr. eexists. split; [reflexivity|]. split.
        -- rewrite absi_push. cbn [absi_item]. rewrite absi_value_implicit, Ha. reflexivity.
        -- apply iok_push; [exact Hm|]. cbn [iok_item]. rewrite iok_value_implicit, Hm'. reflexivity.
      * destruct IH as [c Hc]. rewrite Hc. eexists; reflexivity.
      * exact IH.
Qed.

Lemma inline_loop_sim l : forall m,
  iok_items m = true -> pairs_closed l ->
  simi (table_from_pairs_loop m (to_pairs l)) (inline_fold (absi_items m) (erase_pairs l)).
Proof.
  induction l as [|[path [k v]] tl IH]; intros m Hm Hc.
  - cbn [to_pairs erase_pairs map table_from_pairs_loop inline_fold simi]. exists m. auto.
  - inversion Hc as [|x l' Hv Hc']; subst. cbn [fst snd] in Hv.
    cbn [to_pairs erase_pairs map fst snd table_from_pairs_loop inline_fold].
    fold (to_pairs tl). fold (erase_pairs tl).
    assert (H : simi (inline_insert m false path (match path with [] => true | _ => false end) k (IValue v))
                     (insert_kv true (keys path ++ [k_key k]) v (absi_items m))).
    { destruct path as [|pk ptl].
      - cbn [keys map app]. apply inline_leaf; [exact Hm | exact Hv | reflexivity].
      - apply inline_sub; [exact Hv | exact Hm | discriminate]. }
    destruct (insert_kv true (keys path ++ [k_key k]) v (absi_items m)) as [t'| |]; cbn [simi rbind] in *.
    + destruct H as (m' & Hr & Ha & Hm'). rewrite Hr. subst t'. apply IH; assumption.
    + destruct H as [c Hr]. rewrite Hr. eexists; reflexivity.
    + exact H.
Qed.

Lemma inline_correct (l : list ipair) :
  pairs_closed l ->
  match inline_run (erase_pairs l) with
  | Some t => exists m, table_from_pairs_loop [] (to_pairs l) = COk m /\ absi_items m = t
  | None => exists c, table_from_pairs_loop [] (to_pairs l) = CErr c
  end.
Proof.
  intro Hc. pose proof (inline_loop_sim l [] eq_refl Hc) as H. unfold inline_run.
  change (absi_items []) with (@nil (bytes * node value)) in H.
  destruct (inline_fold [] (erase_pairs l)) as [t| |]; cbn [simi] in H.
  - destruct H as (m & H1 & H2 & _). exists m. auto.
  - exact H.
  - contradiction.
Qed.

Lemma inline_no_panic (l : list ipair) s :
  pairs_closed l -> table_from_pairs_loop [] (to_pairs l) <> CPanic s.
Proof.
  intro Hc. pose proof (inline_correct l Hc) as H. destruct (inline_run (erase_pairs l)).
  - destruct H as (m & H & _). rewrite H. discriminate.
  - destruct H as [c H]. rewrite H. discriminate.
Qed.
