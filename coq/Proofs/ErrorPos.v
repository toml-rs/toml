(* Proofs/ErrorPos.v — lemmas behind Props/C15.v, part 1: UTF-8 character structure,
   winnow's char_span, translate_position against Spec/Position.v, totality of rendering. *)
From Coq Require Import List Bool Arith NArith ZArith Lia ZifyBool ZifyN.
From Coq.Strings Require Import Byte.
From TV Require Import Base.Prelude Base.Utf8 Base.Utf8Facts Model.Error Spec.Position.
Import ListNotations.
From TV Require Import Base.ListFacts.

(* UTF-8: one character at a time *)
Definition cont_bytes (t : bytes) : Prop := forallb (fun b => negb (is_boundary_byte b)) t = true.

Lemma ascii_boundary b : (b2n b <=? 127)%N = true -> is_boundary_byte b = true.
Proof. unfold is_boundary_byte. lia. Qed.
Lemma lead_boundary lo hi b : (192 <= lo)%N -> inr lo hi b = true -> is_boundary_byte b = true.
Proof. unfold is_boundary_byte, inr. lia. Qed.
Lemma cont_not_boundary b : is_cont b = true -> is_boundary_byte b = false.
Proof. unfold is_boundary_byte, is_cont. lia. Qed.

(* a valid non-empty text starts with one whole character: a boundary byte followed by
   continuation bytes, and the rest is valid again; an ASCII byte is a character by itself *)
Lemma valid_step s :
  utf8_valid_b s = true -> s <> [] ->
  exists h t r, s = h :: t ++ r /\ is_boundary_byte h = true /\ cont_bytes t /\ utf8_valid_b r = true
    /\ ((b2n h <=? 127)%N = true -> t = [])
    /\ (forall r', utf8_valid_b r' = true -> utf8_valid_b (h :: t ++ r') = true).
Proof.
  intros V Hne.
  destruct (utf8_valid_cases s V) as [-> | [(b & s' & -> & Hb & V') | [(b0 & b1 & s' & -> & H0 & H1 & V')
    | [(b0 & b1 & b2 & s' & -> & H0 & H1 & H2 & V') | (b0 & b1 & b2 & b3 & s' & -> & H0 & H1 & H2 & H3 & V')]]]];
    [congruence|..].
  - exists b, [], s'. repeat split; auto using ascii_boundary.
    intros r' Hr. cbn [app]. rewrite utf8_cons_ascii by exact Hb. exact Hr.
  - exists b0, [b1], s'. repeat split; auto.
    + apply (lead_boundary 194 223); [clear; lia|exact H0].
    + unfold cont_bytes. cbn [forallb]. rewrite (cont_not_boundary _ H1). reflexivity.
    + unfold inr in H0. lia.
    + intros r' Hr. cbn [app]. rewrite utf8_seq2 by assumption. exact Hr.
  - pose proof (second3_cont _ _ H1) as C1. exists b0, [b1; b2], s'. repeat split; auto.
    + apply (lead_boundary 224 239); [clear; lia|exact H0].
    + unfold cont_bytes. cbn [forallb]. rewrite (cont_not_boundary _ C1), (cont_not_boundary _ H2). reflexivity.
    + unfold inr in H0. lia.
    + intros r' Hr. cbn [app]. rewrite utf8_seq3 by assumption. exact Hr.
  - pose proof (second4_cont _ _ H1) as C1. exists b0, [b1; b2; b3], s'. repeat split; auto.
    + apply (lead_boundary 240 244); [clear; lia|exact H0].
    + unfold cont_bytes. cbn [forallb].
      rewrite (cont_not_boundary _ C1), (cont_not_boundary _ H2), (cont_not_boundary _ H3). reflexivity.
    + unfold inr in H0. lia.
    + intros r' Hr. cbn [app]. rewrite utf8_seq4 by assumption. exact Hr.
Qed.

Lemma valid_head_boundary b s : utf8_valid_b (b :: s) = true -> is_boundary_byte b = true.
Proof.
  intro H. destruct (valid_step _ H) as (h & t & r & E & Hb & _); [discriminate|].
  injection E as -> _. exact Hb.
Qed.

(* "offset i is a character boundary of s" on nat offsets *)
Definition bnd (s : bytes) (i : nat) : Prop :=
  i = length s \/ exists b, nth_error s i = Some b /\ is_boundary_byte b = true.

Lemma bnd_of_b s i : char_boundary_b s (N.of_nat i) = true -> bnd s i.
Proof.
  unfold char_boundary_b, bnd. rewrite Nat2N.id.
  destruct (nth_error s i) as [b|] eqn:E; intro H.
  - right. eauto.
  - left. apply N.eqb_eq in H. lia.
Qed.

Lemma bnd_to_b s i : bnd s i -> char_boundary_b s (N.of_nat i) = true.
Proof.
  unfold char_boundary_b, bnd. rewrite Nat2N.id. intros [->|(b & E & Hb)].
  - assert (E : nth_error s (length s) = None) by (apply nth_error_None; lia).
    rewrite E. apply N.eqb_refl.
  - rewrite E. exact Hb.
Qed.

Lemma cont_nth t k b : cont_bytes t -> nth_error t k = Some b -> is_boundary_byte b = false.
Proof.
  unfold cont_bytes. intros H E. apply nth_error_In in E.
  rewrite forallb_forall in H. apply H in E. destruct (is_boundary_byte b); [discriminate|reflexivity].
Qed.

(* a valid text is a sequence of characters, and may be taken apart one character at a time *)
Lemma valid_chars_ind (P : bytes -> Prop) :
  P [] ->
  (forall h t r, is_boundary_byte h = true -> cont_bytes t -> utf8_valid_b r = true ->
     ((b2n h <=? 127)%N = true -> t = []) ->
     (forall r', utf8_valid_b r' = true -> utf8_valid_b (h :: t ++ r') = true) ->
     P r -> P (h :: t ++ r)) ->
  forall s, utf8_valid_b s = true -> P s.
Proof.
  intros Hnil Hchar s. remember (length s) as n eqn:En. revert s En.
  induction n as [n IH] using lt_wf_ind. intros s -> Hv.
  destruct s as [|b0 s1]; [exact Hnil|].
  destruct (valid_step _ Hv) as (h & t & r & E & Hh & Ht & Hr & Hasc & Hclo); [discriminate|].
  rewrite E. apply Hchar; try assumption.
  apply (IH (length r)); [|reflexivity|exact Hr]. rewrite E. cbn [length]. rewrite app_length. lia.
Qed.

Lemma skipn_app_2 {A} (c r : list A) j : skipn (length c + j) (c ++ r) = skipn j r.
Proof. induction c as [|x c IH]; [reflexivity|exact IH]. Qed.

Lemma bnd_app c r j : bnd (c ++ r) (length c + j) <-> bnd r j.
Proof.
  unfold bnd. rewrite app_length, nth_error_app2 by lia.
  replace (length c + j - length c) with j by lia. split; (intros [H|H]; [left; lia|right; exact H]).
Qed.

(* no boundary falls inside a character *)
Lemma bnd_past_char h t r i : cont_bytes t -> bnd (h :: t ++ r) (S i) -> length t <= i.
Proof.
  intros Ht Hb. destruct (le_lt_dec (length t) i) as [Hge|Hlt]; [exact Hge|exfalso].
  destruct Hb as [Hb|(b & Hb & Hbb)].
  - cbn [length] in Hb. rewrite app_length in Hb. lia.
  - cbn [nth_error] in Hb. rewrite nth_error_app1 in Hb by exact Hlt.
    rewrite (cont_nth _ _ _ Ht Hb) in Hbb. discriminate.
Qed.

(* cutting a valid text at a character boundary leaves two valid texts *)
Lemma valid_split s i :
  utf8_valid_b s = true -> bnd s i -> i <= length s ->
  utf8_valid_b (firstn i s) = true /\ utf8_valid_b (skipn i s) = true.
Proof.
  intros Hv Hb _. revert i Hb. pattern s. apply valid_chars_ind; [| |exact Hv].
  - intros i _. rewrite firstn_nil, skipn_nil. auto.
  - intros h t r _ Ht Hr _ Hclo IH [|i] Hb; [split; [reflexivity|exact (Hclo _ Hr)]|].
    pose proof (bnd_past_char _ _ _ _ Ht Hb) as Hge.
    replace (S i) with (length (h :: t) + (i - length t)) in * by (cbn [length]; lia).
    change (h :: t ++ r) with ((h :: t) ++ r) in *. apply bnd_app in Hb.
    rewrite firstn_app_2, skipn_app_2. destruct (IH _ Hb) as [H1 H2]. split; [apply Hclo, H1|exact H2].
Qed.

(* the offset right after an ASCII byte of a valid text is a character boundary *)
Lemma after_ascii_bnd s j b :
  utf8_valid_b s = true -> nth_error s j = Some b -> (b2n b <=? 127)%N = true -> bnd s (S j).
Proof.
  intros Hv Hj Hb. revert j Hj. pattern s. apply valid_chars_ind; [| |exact Hv].
  - intros [|j]; discriminate.
  - intros h t r _ Ht Hr Hasc _ IH [|j] Hj.
    + injection Hj as ->. rewrite (Hasc Hb). apply (bnd_app [b] r 0).
      destruct r as [|b1 r']; [left; reflexivity|right].
      exists b1. split; [reflexivity|exact (valid_head_boundary _ _ Hr)].
    + cbn [nth_error] in Hj. destruct (le_lt_dec (length t) j) as [Hge|Hlt].
      * rewrite nth_error_app2 in Hj by exact Hge. apply IH in Hj.
        replace (S (S j)) with (length (h :: t) + S (j - length t)) by (cbn [length]; lia).
        apply (bnd_app (h :: t)). exact Hj.
      * rewrite nth_error_app1 in Hj by exact Hlt.
        pose proof (ascii_boundary _ Hb) as Hbb. rewrite (cont_nth _ _ _ Ht Hj) in Hbb. discriminate.
Qed.

Lemma valid_chars_pos s : utf8_valid_b s = true -> s <> [] -> 1 <= chars_count s.
Proof.
  intros Hv Hne. destruct s as [|b s]; [congruence|].
  unfold chars_count. cbn [filter]. rewrite (valid_head_boundary _ _ Hv). cbn. lia.
Qed.

(* winnow's char_span *)
Lemma rfind_below_some p n i : rfind_below p n = Some i -> i < n /\ p i = true.
Proof.
  induction n as [|n IH]; cbn; [discriminate|].
  destruct (p n) eqn:E; intro H.
  - injection H as <-. split; [lia|exact E].
  - apply IH in H. split; [lia|tauto].
Qed.

Lemma rfind_below_none p n : rfind_below p n = None -> forall i, i < n -> p i = false.
Proof.
  induction n as [|n IH]; cbn; intros H i Hi; [lia|].
  destruct (p n) eqn:E; [discriminate|].
  destruct (Nat.eq_dec i n); [subst; exact E|apply IH; [exact H|lia]].
Qed.

Lemma find_from_some p a k i : find_from p a k = Some i -> a <= i < a + k /\ p i = true.
Proof.
  revert a; induction k as [|k IH]; cbn; intros a H; [discriminate|].
  destruct (p a) eqn:E.
  - injection H as <-. split; [lia|exact E].
  - apply IH in H. split; [lia|tauto].
Qed.

Lemma boundary_at_bnd s i : boundary_at s i = true -> bnd s i.
Proof.
  unfold boundary_at, bnd. destruct (nth_error s i) as [b|] eqn:E; [|discriminate].
  intro H. right. eauto.
Qed.

Lemma span_ok s off :
  utf8_valid_b s = true -> off <= length s ->
  let (a, b) := char_span s off in
  a <= b /\ b <= length s /\ char_boundary_b s (N.of_nat a) = true /\ char_boundary_b s (N.of_nat b) = true
  /\ a <= off.
Proof.
  intros Hv Hoff. unfold char_span, char_boundary.
  destruct (Nat.eqb off (length s)) eqn:Eq.
  - apply Nat.eqb_eq in Eq. subst off.
    assert (B : char_boundary_b s (N.of_nat (length s)) = true) by (apply bnd_to_b; left; reflexivity).
    repeat split; auto.
  - apply Nat.eqb_neq in Eq. assert (Hlt : off < length s) by lia.
    replace (Nat.min (off + 1) (length s)) with (S off) by lia.
    destruct (rfind_below (boundary_at s) (S off)) as [a|] eqn:Ea.
    + apply rfind_below_some in Ea as [Ha Hab].
      destruct (find_from (boundary_at s) (off + 1) (length s - (off + 1))) as [b|] eqn:Eb.
      * apply find_from_some in Eb as [Hb Hbb].
        repeat split; try lia; apply bnd_to_b, boundary_at_bnd; assumption.
      * repeat split; try lia; apply bnd_to_b; [apply boundary_at_bnd; assumption|left; reflexivity].
    + exfalso. pose proof (rfind_below_none _ _ Ea 0 ltac:(lia)) as H0.
      destruct s as [|b0 s']; [cbn in Hlt; lia|].
      unfold boundary_at in H0. cbn [nth_error] in H0.
      rewrite (valid_head_boundary _ _ Hv) in H0. discriminate.
Qed.

(* the span covers the offset: a <= off < b unless off is the end of input *)
Lemma span_covers s off :
  off < length s -> let (a, b) := char_span s off in a <= off < b.
Proof.
  intro Hlt. unfold char_span, char_boundary.
  assert (Eq : Nat.eqb off (length s) = false) by (apply Nat.eqb_neq; lia). rewrite Eq.
  replace (Nat.min (off + 1) (length s)) with (S off) by lia.
  destruct (rfind_below (boundary_at s) (S off)) as [a|] eqn:Ea;
    [apply rfind_below_some in Ea as [Ha _]|];
    (destruct (find_from (boundary_at s) (off + 1) (length s - (off + 1))) as [b|] eqn:Eb;
     [apply find_from_some in Eb as [Hb _]|]); lia.
Qed.

(* the line of a prefix *)
Lemma is_lf_iff b : is_lf b = true <-> b = x0a.
Proof. unfold is_lf. apply byte_eqb_eq. Qed.

Lemma lf_is_lf : lf = is_lf.
Proof. reflexivity. Qed.

Definition no_lf (s : bytes) : Prop := forallb (fun b => negb (is_lf b)) s = true.

Lemma no_lf_count s : no_lf s -> count_lf s = 0.
Proof.
  unfold no_lf, count_lf. rewrite lf_is_lf. induction s as [|b s IH]; [reflexivity|].
  cbn [forallb filter]. intro H. apply andb_true_iff in H as [H1 H2].
  destruct (is_lf b); [discriminate|]. apply IH; exact H2.
Qed.

Lemma find_index_lt f l k : find_index f l = Some k -> k < length l.
Proof.
  revert k; induction l as [|b l IH]; cbn; intros k H; [discriminate|].
  destruct (f b); [injection H as <-; lia|].
  destruct (find_index f l) as [k'|]; [|discriminate]. injection H as <-.
  specialize (IH k' eq_refl). lia.
Qed.

(* find_index on the reversed prefix = distance of the last LF from the end *)
Lemma find_index_spec f l :
  match find_index f l with
  | None => forallb (fun b => negb (f b)) l = true
  | Some k => exists l1 b l2, l = l1 ++ b :: l2 /\ length l1 = k /\ f b = true
                              /\ forallb (fun b => negb (f b)) l1 = true
  end.
Proof.
  induction l as [|b l IH]; cbn; [reflexivity|].
  destruct (f b) eqn:E.
  - exists [], b, l. auto.
  - destruct (find_index f l) as [k|]; cbn.
    + destruct IH as (l1 & c & l2 & -> & <- & Hc & Hl1).
      exists (b :: l1), c, l2. cbn. rewrite E. auto.
    + exact IH.
Qed.

Lemma current_line_fold acc s :
  fold_left (fun acc b => if is_lf b then [] else acc ++ [b]) s acc
  = match find_index is_lf (rev s) with
    | None => acc ++ s
    | Some k => skipn (length s - k) s
    end.
Proof.
  revert acc. induction s as [|b s IH] using rev_ind; intro acc.
  - cbn. rewrite app_nil_r. reflexivity.
  - rewrite fold_left_app. cbn [fold_left]. rewrite rev_app_distr. cbn [rev app find_index].
    destruct (is_lf b) eqn:E.
    + rewrite app_length. cbn [length]. rewrite Nat.sub_0_r.
      rewrite skipn_all2 by (rewrite app_length; cbn; lia). reflexivity.
    + rewrite IH. destruct (find_index is_lf (rev s)) as [k|] eqn:Ek; cbn [option_map].
      * pose proof (find_index_lt _ _ _ Ek) as Hk. rewrite rev_length in Hk.
        rewrite app_length. cbn [length].
        replace (length s + 1 - S k) with (length s - k) by lia.
        rewrite skipn_app. replace (length s - k - length s) with 0 by lia. reflexivity.
      * rewrite app_assoc. reflexivity.
Qed.

Lemma forallb_rev {A} (f : A -> bool) l : forallb f (rev l) = forallb f l.
Proof.
  induction l as [|a l IH]; [reflexivity|]. cbn [rev forallb].
  rewrite forallb_app, IH. cbn [forallb]. rewrite andb_true_r. apply andb_comm.
Qed.

(* the prefix splits into the text before the current line and the current line *)
Lemma line_split (p : bytes) :
  let ls := match option_map (fun nl => length p - nl - 1) (find_index is_lf (rev p)) with
            | Some nl => nl + 1 | None => 0 end in
  exists q, p = q ++ current_line p /\ length q = ls /\ no_lf (current_line p)
            /\ count_lf q = count_lf p
            /\ (q = [] \/ exists q', q = q' ++ [x0a]).
Proof.
  cbv zeta.
  change (current_line p) with (fold_left (fun acc b => if is_lf b then [] else acc ++ [b]) p []).
  rewrite current_line_fold.
  pose proof (find_index_spec is_lf (rev p)) as S.
  destruct (find_index is_lf (rev p)) as [k|] eqn:Ek; cbn [option_map].
  - destruct S as (l1 & b & l2 & El & Hl1 & Hb & Hno).
    apply is_lf_iff in Hb. subst b.
    assert (Ep : p = rev l2 ++ x0a :: rev l1).
    { rewrite <- (rev_involutive p), El, rev_app_distr. cbn [rev]. rewrite <- app_assoc. reflexivity. }
    assert (Hlen : length p = length l2 + 1 + k).
    { rewrite Ep, app_length. cbn [length]. rewrite !rev_length. lia. }
    assert (Esk : skipn (length p - k) p = rev l1).
    { rewrite Ep at 2. replace (length p - k) with (length (rev l2 ++ [x0a]))
        by (rewrite app_length, rev_length; cbn; lia).
      change (x0a :: rev l1) with ([x0a] ++ rev l1). rewrite app_assoc. apply skipn_app_len. }
    assert (Hn1 : no_lf (rev l1)) by (unfold no_lf; rewrite forallb_rev; exact Hno).
    rewrite Esk. exists (rev l2 ++ [x0a]). repeat split.
    + rewrite <- app_assoc. exact Ep.
    + rewrite app_length, rev_length. cbn. lia.
    + exact Hn1.
    + rewrite Ep. unfold count_lf.
      replace (rev l2 ++ x0a :: rev l1) with ((rev l2 ++ [x0a]) ++ rev l1) by (rewrite <- app_assoc; reflexivity).
      rewrite (filter_app lf (rev l2 ++ [x0a]) (rev l1)), app_length.
      pose proof (no_lf_count (rev l1) Hn1) as Z. unfold count_lf in Z. rewrite Z. lia.
    + right. eauto.
  - assert (Hn : no_lf p) by (unfold no_lf; rewrite <- forallb_rev; exact S).
    exists []. cbn [app length]. repeat split; auto.
    symmetry. apply no_lf_count, Hn.
Qed.

(* translate_position *)
Lemma slice_0 s n : slice s 0 n = firstn n s.
Proof. unfold slice. rewrite Nat.sub_0_r. reflexivity. Qed.

(* the shape of the input around the clamped index *)
Lemma around_index (s : bytes) idx :
  idx < length s -> exists b rest', s = firstn idx s ++ b :: rest' /\ nth_error s idx = Some b.
Proof.
  intro H. destruct (nth_error s idx) as [b|] eqn:E; [|apply nth_error_None in E; lia].
  apply nth_error_split in E as (l1 & l2 & Es & Hl). exists b, l2. subst idx. subst s. split.
  - rewrite firstn_app_len. reflexivity.
  - reflexivity.
Qed.

Lemma slices_of_split q cl b rest' :
  let s := (q ++ cl) ++ b :: rest' in
  slice s 0 (length q) = q
  /\ slice s (length q) (length q + length cl) = cl
  /\ slice s (length q) (S (length q + length cl)) = cl ++ [b].
Proof.
  cbv zeta. unfold slice. rewrite <- !app_assoc. repeat split.
  - rewrite Nat.sub_0_r. apply firstn_app_len.
  - rewrite skipn_app_len.
    replace (length q + length cl - length q) with (length cl) by lia. apply firstn_app_len.
  - rewrite skipn_app_len.
    replace (S (length q + length cl) - length q) with (length cl + 1) by lia.
    rewrite firstn_app. rewrite firstn_all2 by lia.
    replace (length cl + 1 - length cl) with 1 by lia. reflexivity.
Qed.

Lemma chars_count_app a b : chars_count (a ++ b) = chars_count a + chars_count b.
Proof. unfold chars_count. rewrite filter_app, app_length. reflexivity. Qed.

Lemma count_chars_is s : count_chars s = chars_count s.
Proof. reflexivity. Qed.

Definition tp_body (input : bytes) (index : nat) : nat * nat :=
    let safe_index := Nat.min index (length input - 1) in
    let column_offset := index - safe_index in
    let index := safe_index in
    let nl := option_map (fun nl => index - nl - 1)
                (find_index is_lf (rev (slice input 0 index))) in
    let line_start := match nl with Some nl => nl + 1 | None => 0 end in
    let line := length (filter is_lf (slice input 0 line_start)) in
    let column :=
      if utf8_valid_b (slice input line_start (S index))
      then chars_count (slice input line_start (S index)) - 1
      else if utf8_valid_b (slice input line_start index)
      then chars_count (slice input line_start index)
      else index - line_start in
    (line, column + column_offset).

Lemma translate_position_ne s i : s <> [] -> translate_position s i = tp_body s i.
Proof. destruct s; [congruence|reflexivity]. Qed.

(* what translate_position computes, in terms of the split of the prefix before the anchor *)
Lemma translate_position_shape s i :
  s <> [] ->
  let idx := Nat.min i (length s - 1) in
  exists q cl b rest',
    s = (q ++ cl) ++ b :: rest' /\ firstn idx s = q ++ cl /\ cl = current_line (firstn idx s)
    /\ no_lf cl /\ count_lf q = count_lf (firstn idx s) /\ (q = [] \/ exists q', q = q' ++ [x0a])
    /\ translate_position s i =
       (count_lf q,
        (if utf8_valid_b (cl ++ [b]) then chars_count (cl ++ [b]) - 1
         else if utf8_valid_b cl then chars_count cl else length cl) + (i - idx)).
Proof.
  intros Hne. cbv zeta.
  set (idx := Nat.min i (length s - 1)).
  assert (Hlen : 0 < length s) by (destruct s; [congruence|cbn; lia]).
  assert (Hidx : idx < length s) by (unfold idx; lia).
  destruct (around_index s idx Hidx) as (b & rest' & Es & Hb).
  destruct (line_split (firstn idx s)) as (q & Ep & Hq & Hno & Hcnt & Hqs). cbv zeta in Hq.
  set (cl := current_line (firstn idx s)) in *.
  assert (Hpl : length (firstn idx s) = idx) by (rewrite firstn_length; lia).
  rewrite Hpl in Hq.
  exists q, cl, b, rest'. repeat split; auto.
  - rewrite <- Ep. exact Es.
  - rewrite translate_position_ne by exact Hne. unfold tp_body. cbv zeta.
    fold idx. rewrite !slice_0.
    assert (Hidxq : idx = length q + length cl).
    { rewrite <- Hpl. rewrite Ep at 1. apply app_length. }
    rewrite <- Hq.
    assert (Ess : s = (q ++ cl) ++ b :: rest') by (rewrite <- Ep; exact Es).
    destruct (slices_of_split q cl b rest') as (S1 & S2 & S3). cbv zeta in S1, S2, S3.
    rewrite <- Ess in S1, S2, S3. rewrite slice_0 in S1. rewrite Hidxq. rewrite S1, S2, S3.
    f_equal. f_equal.
    destruct (utf8_valid_b (cl ++ [b])); [reflexivity|].
    destruct (utf8_valid_b cl); [reflexivity|]. lia.
Qed.

Lemma position_correct s i :
  utf8_valid_b s = true -> char_boundary_b s (N.of_nat i) = true -> i <= length s ->
  translate_position s i = (lines_before s i, chars_since_line_start s i).
Proof.
  intros Hv Hb Hi.
  destruct s as [|b0 s0] eqn:Es0.
  { cbn in Hi. assert (i = 0) by lia. subst i. reflexivity. }
  rewrite <- Es0 in *. assert (Hne : s <> []) by (subst; discriminate).
  destruct (translate_position_shape s i Hne) as (q & cl & b & rest' & Es & Ep & Ecl & Hno & Hcnt & Hqs & Htp).
  cbv zeta in *. set (idx := Nat.min i (length s - 1)) in *.
  assert (Hlen : 0 < length s) by (destruct s; [congruence|cbn; lia]).
  assert (Hidx : idx < length s) by (unfold idx; lia).
  assert (Hpl : length (firstn idx s) = idx) by (rewrite firstn_length; lia).
  assert (Hidxq : idx = length q + length cl) by (rewrite <- Hpl, Ep; apply app_length).
  rewrite Htp. unfold lines_before, chars_since_line_start, anchor. fold idx.
  rewrite <- Ecl, Hcnt. f_equal.
  (* the line start is a character boundary, so the rest of the text from there is valid *)
  assert (Hbq : bnd s (length q)).
  { destruct Hqs as [->|(q' & ->)].
    - cbn. right. destruct s as [|c s']; [congruence|]. exists c. split; [reflexivity|].
      eapply valid_head_boundary; exact Hv.
    - rewrite app_length. cbn [length]. replace (length q' + 1) with (S (length q')) by lia.
      apply (after_ascii_bnd s (length q') x0a Hv); [|reflexivity].
      rewrite Es, <- !app_assoc. rewrite nth_error_app2 by lia. rewrite Nat.sub_diag. reflexivity. }
  assert (Hskip : skipn (length q) s = cl ++ b :: rest').
  { rewrite Es, <- app_assoc. apply skipn_app_len. }
  destruct (valid_split s (length q) Hv Hbq ltac:(lia)) as [_ Hvs]. rewrite Hskip in Hvs.
  change count_chars with chars_count. rewrite (chars_count_app cl (skipn idx (firstn i s))).
  destruct (Nat.eq_dec i (length s)) as [Hend|Hin].
  - (* end of input: the anchor is the last byte *)
    assert (Eidx : idx = length s - 1) by (unfold idx; lia).
    assert (Hrest : rest' = []).
    { assert (L : length s = length q + length cl + S (length rest')).
      { rewrite Es at 1. rewrite !app_length. cbn [length]. lia. }
      destruct rest'; [reflexivity|cbn in L; lia]. }
    subst rest'.
    assert (Etail : skipn idx (firstn i s) = [b]).
    { rewrite Hend, firstn_all. rewrite Es at 1. rewrite Hidxq, <- app_length. apply skipn_app_len. }
    rewrite Etail, Hvs. rewrite chars_count_app.
    assert (P : 1 <= chars_count (cl ++ [b])) by (apply valid_chars_pos; [exact Hvs|destruct cl; discriminate]).
    rewrite chars_count_app in P. clear - P Hend Eidx Hlen. lia.
  - (* inside the text: the anchor is i itself and byte i starts a character *)
    assert (Eidx : idx = i) by (unfold idx; lia).
    assert (Etail : skipn idx (firstn i s) = []).
    { apply length_zero_iff_nil. rewrite skipn_length, firstn_length. lia. }
    rewrite Etail. change (chars_count []) with 0.
    assert (Hbb : is_boundary_byte b = true).
    { apply bnd_of_b in Hb. destruct Hb as [Hb|(c & Hc & Hcb)]; [lia|].
      rewrite Es, <- Eidx, Hidxq, <- app_length in Hc. rewrite nth_error_app2 in Hc by lia.
      rewrite Nat.sub_diag in Hc. injection Hc as <-. exact Hcb. }
    assert (Hvcl : utf8_valid_b cl = true).
    { assert (B : bnd (cl ++ b :: rest') (length cl)).
      { right. exists b. split; [|exact Hbb]. rewrite nth_error_app2 by lia. rewrite Nat.sub_diag. reflexivity. }
      destruct (valid_split _ (length cl) Hvs B) as [H1 _]; [rewrite app_length; lia|].
      rewrite firstn_app_len in H1. exact H1. }
    rewrite Hvcl. rewrite chars_count_app.
    replace (chars_count [b]) with 1 by (unfold chars_count; cbn [filter]; rewrite Hbb; reflexivity).
    clear - Eidx. destruct (utf8_valid_b (cl ++ [b])); lia.
Qed.

(* rendering reaches no panic site *)
Lemma sub_chk_ok a b : b <= a -> sub_chk a b = Some (a - b).
Proof. intro H. unfold sub_chk. apply Nat.leb_le in H. rewrite H. reflexivity. Qed.

Lemma slice_chk_ok s a b : a <= b -> b <= length s -> slice_chk s a b = Some (slice s a b).
Proof.
  intros H1 H2. unfold slice_chk. apply Nat.leb_le in H1. apply Nat.leb_le in H2.
  rewrite H1, H2. reflexivity.
Qed.

Lemma slice_length s a b : a <= b -> b <= length s -> length (slice s a b) = b - a.
Proof. intros H1 H2. unfold slice. rewrite firstn_length, skipn_length. lia. Qed.

Definition tp_chk_body (input : bytes) (index : nat) : option (nat * nat) :=
    obind (sub_chk (length input) 1) (fun last =>
    let safe_index := Nat.min index last in
    obind (sub_chk index safe_index) (fun column_offset =>
    let index := safe_index in
    obind (slice_chk input 0 index) (fun pre =>
    obind (match find_index is_lf (rev pre) with
           | Some nl => obind (sub_chk index nl) (fun x => obind (sub_chk x 1) (fun y => Some (Some y)))
           | None => Some None
           end) (fun nl =>
    let line_start := match nl with Some nl => nl + 1 | None => 0 end in
    obind (slice_chk input 0 line_start) (fun before =>
    let line := length (filter is_lf before) in
    obind (slice_chk input line_start (S index)) (fun incl =>
    obind (if utf8_valid_b incl then sub_chk (chars_count incl) 1
           else obind (slice_chk input line_start index) (fun excl =>
                if utf8_valid_b excl then Some (chars_count excl)
                else sub_chk index line_start)) (fun column =>
    Some (line, column + column_offset)))))))).

Lemma translate_position_chk_ne s i : s <> [] -> translate_position_chk s i = tp_chk_body s i.
Proof. destruct s; [congruence|reflexivity]. Qed.

(* every slice bound and every subtraction inside translate_position is in range, for every
   input and every index (no hypothesis on UTF-8 validity or on the index is needed) *)
Lemma translate_position_total s i : translate_position_chk s i = Some (translate_position s i).
Proof.
  destruct (list_eq_dec Byte.byte_eq_dec s []) as [->|Hne]; [reflexivity|].
  rewrite translate_position_chk_ne, translate_position_ne by exact Hne.
  assert (Hlen : 0 < length s) by (destruct s; [congruence|cbn; lia]).
  unfold tp_chk_body, tp_body. cbv zeta.
  rewrite (sub_chk_ok (length s) 1) by lia. cbn [obind].
  set (idx := Nat.min i (length s - 1)).
  assert (Hidx : idx < length s) by (unfold idx; lia).
  rewrite (sub_chk_ok i idx) by (unfold idx; lia). cbn [obind].
  rewrite (slice_chk_ok s 0 idx) by lia. cbn [obind].
  assert (Hpre : length (slice s 0 idx) = idx) by (rewrite slice_length; lia).
  set (fi := find_index is_lf (rev (slice s 0 idx))).
  assert (Hfi : match fi with Some k => k < idx | None => True end).
  { unfold fi. destruct (find_index is_lf (rev (slice s 0 idx))) as [k|] eqn:Ek; [|exact I].
    apply find_index_lt in Ek. rewrite rev_length, Hpre in Ek. exact Ek. }
  assert (Enl : match fi with
                | Some nl => obind (sub_chk idx nl) (fun x => obind (sub_chk x 1) (fun y => Some (Some y)))
                | None => Some None
                end = Some (option_map (fun nl => idx - nl - 1) fi)).
  { destruct fi as [k|]; [|reflexivity]. cbn [option_map].
    rewrite (sub_chk_ok idx k) by lia. cbn [obind]. rewrite (sub_chk_ok (idx - k) 1) by lia. reflexivity. }
  rewrite Enl. cbn [obind].
  set (ls := match option_map (fun nl => idx - nl - 1) fi with Some nl => nl + 1 | None => 0 end).
  assert (Hls : ls <= idx).
  { unfold ls. destruct fi as [k|]; cbn [option_map]; lia. }
  rewrite (slice_chk_ok s 0 ls) by lia. cbn [obind].
  rewrite (slice_chk_ok s ls (S idx)) by lia. cbn [obind].
  destruct (utf8_valid_b (slice s ls (S idx))) eqn:Ev.
  - assert (P : 1 <= chars_count (slice s ls (S idx))).
    { apply valid_chars_pos; [exact Ev|]. intro Z. apply (f_equal (@length byte)) in Z.
      rewrite slice_length in Z by lia. change (length (@nil byte)) with 0 in Z. lia. }
    rewrite sub_chk_ok by exact P. reflexivity.
  - rewrite (slice_chk_ok s ls idx) by lia. cbn [obind].
    destruct (utf8_valid_b (slice s ls idx)); [reflexivity|].
    rewrite sub_chk_ok by exact Hls. reflexivity.
Qed.

(* `raw.split('\n')` yields one more piece than there are LF bytes *)
Lemma split_lf_acc_length cur s : length (split_lf_acc cur s) = S (count_lf s).
Proof.
  revert cur. unfold count_lf. rewrite lf_is_lf.
  induction s as [|b s IH]; intro cur; [reflexivity|]. cbn [split_lf_acc filter].
  destruct (is_lf b); cbn [length]; rewrite IH; reflexivity.
Qed.

Lemma split_lf_length s : length (split_lf s) = S (count_lf s).
Proof. apply split_lf_acc_length. Qed.

Lemma count_lf_firstn n s : count_lf (firstn n s) <= count_lf s.
Proof.
  rewrite <- (firstn_skipn n s) at 2. unfold count_lf. rewrite filter_app, app_length. lia.
Qed.

(* the line translate_position reports always exists in the text *)
Lemma translate_position_line s i : fst (translate_position s i) <= count_lf s.
Proof.
  destruct (list_eq_dec Byte.byte_eq_dec s []) as [->|Hne]; [cbn; lia|].
  destruct (translate_position_shape s i Hne) as (q & cl & b & rest' & Es & Ep & _ & _ & Hcnt & _ & Htp).
  cbv zeta in *. rewrite Htp. cbn [fst]. rewrite Hcnt. apply count_lf_firstn.
Qed.

Lemma render_total_span s a b : a <= b -> exists r, render s (a, b) = ROk r.
Proof.
  intro Hab. unfold render. rewrite translate_position_total.
  pose proof (translate_position_line s a) as Hl.
  destruct (translate_position s a) as [line column]. cbn [fst] in Hl.
  destruct (nth_error (split_lf s) line) as [content|] eqn:En.
  - rewrite sub_chk_ok by exact Hab. eauto.
  - apply nth_error_None in En. rewrite split_lf_length in En. lia.
Qed.

Lemma render_total s off :
  utf8_valid_b s = true -> off <= length s -> exists r, render s (char_span s off) = ROk r.
Proof.
  intros Hv Hoff. pose proof (span_ok s off Hv Hoff) as H.
  destruct (char_span s off) as [a b]. apply render_total_span. tauto.
Qed.

(* what is rendered: the 1-based line and column of the span start as the specification counts them *)
Lemma render_position s off r :
  utf8_valid_b s = true -> off <= length s -> render s (char_span s off) = ROk r ->
  r_line_num r = lines_before s (fst (char_span s off)) + 1
  /\ r_col_num r = chars_since_line_start s (fst (char_span s off)) + 1.
Proof.
  intros Hv Hoff. pose proof (span_ok s off Hv Hoff) as H.
  destruct (char_span s off) as [a b]. destruct H as (Hab & Hb & Ba & Bb & Hao). cbn [fst].
  unfold render. rewrite translate_position_total.
  rewrite (position_correct s a Hv Ba) by lia.
  destruct (nth_error (split_lf s) (lines_before s a)); [|discriminate].
  rewrite sub_chk_ok by exact Hab. intro E. injection E as <-. cbn. auto.
Qed.
