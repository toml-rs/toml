(* Proofs/DepthLimit.v — lemmas behind Props/C05.v, part 5: the limit is enforced for EVERY nesting
   count, by induction (not a sweep), for the two constructs that recurse through
   `check_recursion`:
     `a=` followed by n >= LIMIT opening brackets            (arrays)
     `a=` followed by n >= LIMIT times `{k=`                  (inline tables)
   is rejected with the RecursionLimit error whatever follows. *)
From Coq Require Import List Bool Arith NArith ZArith Lia.
From Coq.Strings Require Import Byte.
From TV Require Import Base.Prelude Base.Winnow Gen.Consts.
From TV Require Import Model.Trivia Model.Parse Model.Document.
From TV Require Import Proofs.DepthBase.
Import ListNotations.
From TV Require Import Base.WinnowFacts.

(* ---- rewriting a run through the combinators -------------------------------------------- *)
Lemma ws_stop i b r : rest i = b :: r -> in_class WSCHAR b = false -> ws i = Ok [] (advance 0 i).
Proof.
  intros H Hb. unfold ws, unchecked_utf8, take_while0, take_while_mn. rewrite H.
  cbn [span_while]. rewrite Hb. cbn [fst length Nat.ltb Nat.leb]. reflexivity.
Qed.

Lemma wcn_stop i b r : rest i = b :: r -> in_class WSCHAR b = false ->
  byte_eqb b x23 = false -> byte_eqb b x0a = false -> byte_eqb b x0d = false ->
  span_ ws_comment_newline i = Ok (pos i, (pos i + 0)%N) (advance 0 i).
Proof.
  intros H Hb H1 H2 H3. unfold span_, ws_comment_newline. rewrite H. cbn [length ws_comment_newline_f].
  rewrite (ws_stop i b r H Hb). cbn [advance rest skipn]. rewrite H, H1, H2, H3. reflexivity.
Qed.

Lemma value_step_bracket vr i r : rest i = x5b :: r ->
  value_step vr i = match check_recursion (array vr) i with
                    | Ok v i' => Ok (apply_raw v (pos i, pos i')) i'
                    | Bt e i' => Bt e i' | Cut e i' => Cut e i' | Panic s => Panic s end.
Proof.
  intro H. unfold value_step, pmap, with_span, value_body, bind, context, peek, any. rewrite H.
  change (byte_eqb "[" QUOTATION_MARK || byte_eqb "[" APOSTROPHE) with false.
  change (byte_eqb "[" ARRAY_OPEN) with true. cbv iota.
  destruct (check_recursion (array vr) i); reflexivity.
Qed.

Lemma byte_ok b i r : rest i = b :: r -> byte_ b i = Ok b (advance 1 i).
Proof. intro H. unfold byte_, one_of. rewrite H, byte_eqb_refl. reflexivity. Qed.

Lemma peek_close_bracket i r : rest i = x5b :: r -> peek (opt (byte_ ARRAY_CLOSE)) i = Ok None i.
Proof. intro H. unfold peek, opt, byte_, one_of. rewrite H. reflexivity. Qed.

Lemma arrays_limit : forall j fuel i m tl,
  depth i + j + 1 = LIMIT -> j < m -> j < fuel -> rest i = repeat x5b m ++ tl ->
  exists i', value_f fuel i = Cut (err_of RecursionLimit) i'.
Proof.
  induction j as [|j IH]; intros fuel i m tl Hd Hm Hf Hr.
  - destruct fuel as [|f]; [lia|]. destruct m as [|m]; [lia|]. cbn [repeat app] in Hr.
    cbn [value_f]. rewrite (value_step_bracket _ _ _ Hr).
    unfold check_recursion. cbn [set_depth depth].
    replace (Nat.leb LIMIT (S (depth i))) with true by (symmetry; apply Nat.leb_le; lia).
    eexists; reflexivity.
  - destruct fuel as [|f]; [lia|]. destruct m as [|m]; [lia|]. destruct m as [|m]; [lia|].
    cbn [repeat app] in Hr.
    cbn [value_f]. rewrite (value_step_bracket _ _ _ Hr).
    unfold check_recursion. cbn [set_depth depth].
    replace (Nat.leb LIMIT (S (depth i))) with false by (symmetry; apply Nat.leb_gt; lia).
    set (i1 := mkIn (rest i) (pos i) (S (depth i))).
    assert (H1 : rest i1 = x5b :: x5b :: repeat x5b m ++ tl) by exact Hr.
    set (i2 := advance 1 i1).
    assert (H2 : rest i2 = x5b :: repeat x5b m ++ tl) by (unfold i2; cbn [advance rest]; rewrite H1; reflexivity).
    set (i3 := advance 0 i2).
    assert (H3 : rest i3 = repeat x5b (S m) ++ tl) by (unfold i3; cbn [advance rest skipn]; exact H2).
    destruct (IH f i3 (S m) tl) as [i' Hi']; [cbn [i3 i2 i1 advance depth]; lia|lia|lia|exact H3|].
    assert (Hav : array_value (value_f f) i2 = Cut (err_of RecursionLimit) i').
    { unfold array_value.
      rewrite (bind_ok _ _ _ _ _ (wcn_stop i2 _ _ H2 eq_refl eq_refl eq_refl eq_refl)).
      apply bind_cut. exact Hi'. }
    assert (Havs : array_values (value_f f) i2 = Cut (err_of RecursionLimit) i').
    { unfold array_values. rewrite (bind_ok _ _ _ _ _ (peek_close_bracket _ _ H2)).
      apply bind_cut. unfold separated0. rewrite Hav. reflexivity. }
    assert (Ha : array (value_f f) i1 = Cut (err_of RecursionLimit) i').
    { unfold array. rewrite (bind_ok _ _ _ _ _ (byte_ok ARRAY_OPEN i1 _ H1)).
      apply bind_cut. unfold cut_err. fold i2. rewrite Havs. reflexivity. }
    change (set_depth (S (depth i)) i) with i1. rewrite Ha. eexists; reflexivity.
Qed.

Lemma value_arrays_limit i m tl : depth i = 0 -> LIMIT <= m -> rest i = repeat x5b m ++ tl ->
  exists i', value_ i = Cut (err_of RecursionLimit) i'.
Proof.
  intros Hd Hm Hr. unfold value_. pose proof LIMIT_ge2 as HL.
  apply (arrays_limit (LIMIT - 1) _ i m tl); [lia|lia| |exact Hr].
  rewrite Hr, app_length, repeat_length. lia.
Qed.


Lemma context_cut_limit {A} (p : parser A) i i1 :
  p i = Cut (err_of RecursionLimit) i1 -> context p i = Cut (mkErr (Some RecursionLimit) true) i1.
Proof. intro H. unfold context. rewrite H. reflexivity. Qed.

(* ---- inline tables -------------------------------------------------------- *)
Definition braces (m : nat) : bytes := concat (repeat [x7b; x6b; x3d] m).

Lemma value_step_brace vr i r : rest i = x7b :: r ->
  value_step vr i = match check_recursion (inline_table vr) i with
                    | Ok v i' => Ok (apply_raw v (pos i, pos i')) i'
                    | Bt e i' => Bt e i' | Cut e i' => Cut e i' | Panic s => Panic s end.
Proof.
  intro H. unfold value_step, pmap, with_span, value_body, bind, context, peek, any. rewrite H.
  change (byte_eqb "{" QUOTATION_MARK || byte_eqb "{" APOSTROPHE) with false.
  change (byte_eqb "{" ARRAY_OPEN) with false.
  change (byte_eqb "{" INLINE_TABLE_OPEN) with true. cbv iota.
  destruct (check_recursion (inline_table vr) i); reflexivity.
Qed.

Lemma key_k rs p d : exists kp i2,
  key_ (mkIn (x6b :: x3d :: rs) p d) = Ok kp i2 /\ rest i2 = x3d :: rs /\ depth i2 = d /\
  exists k, pop_key kp = Some ([], k).
Proof.
  eexists. eexists. split; [reflexivity|]. split; [reflexivity|]. split; [reflexivity|].
  eexists. reflexivity.
Qed.

Lemma inlines_limit : forall j fuel i m tl,
  depth i + j + 1 = LIMIT -> j < m -> j < fuel -> rest i = braces m ++ tl ->
  exists i', value_f fuel i = Cut (err_of RecursionLimit) i'.
Proof.
  induction j as [|j IH]; intros fuel i m tl Hd Hm Hf Hr.
  - destruct fuel as [|f]; [lia|]. destruct m as [|m]; [lia|].
    unfold braces in Hr. cbn [repeat concat app] in Hr.
    cbn [value_f]. rewrite (value_step_brace _ _ _ Hr).
    unfold check_recursion. cbn [set_depth depth].
    replace (Nat.leb LIMIT (S (depth i))) with true by (symmetry; apply Nat.leb_le; lia).
    eexists; reflexivity.
  - destruct fuel as [|f]; [lia|]. destruct m as [|m]; [lia|]. destruct m as [|m]; [lia|].
    unfold braces in Hr. cbn [repeat concat app] in Hr. fold (braces m) in Hr.
    cbn [value_f]. rewrite (value_step_brace _ _ _ Hr).
    unfold check_recursion. cbn [set_depth depth].
    replace (Nat.leb LIMIT (S (depth i))) with false by (symmetry; apply Nat.leb_gt; lia).
    change (set_depth (S (depth i)) i) with (mkIn (rest i) (pos i) (S (depth i))).
    set (i1 := mkIn (rest i) (pos i) (S (depth i))).
    assert (H1 : rest i1 = x7b :: x6b :: x3d :: x7b :: x6b :: x3d :: braces m ++ tl) by exact Hr.
    set (i2 := advance 1 i1).
    assert (H2 : i2 = mkIn (x6b :: x3d :: x7b :: x6b :: x3d :: braces m ++ tl) (pos i2) (S (depth i))).
    { unfold i2, advance. cbn [rest pos depth]. rewrite H1. reflexivity. }
    destruct (key_k (x7b :: x6b :: x3d :: braces m ++ tl) (pos i2) (S (depth i)))
      as (kp & i3 & Hk & Hr3 & Hd3 & k & Hpop).
    rewrite <- H2 in Hk.
    set (i4 := advance 1 i3).
    assert (Hr4 : rest i4 = x7b :: x6b :: x3d :: braces m ++ tl)
      by (unfold i4; cbn [advance rest]; rewrite Hr3; reflexivity).
    set (i5 := advance 0 i4).
    assert (Hr5 : rest i5 = braces (S m) ++ tl) by (unfold i5; cbn [advance rest skipn]; exact Hr4).
    destruct (IH f i5 (S m) tl) as [i' Hi']; [cbn [i5 i4 advance depth]; lia|lia|lia|exact Hr5|].
    assert (Hkv : inline_keyval (value_f f) i2 = Cut (err_of RecursionLimit) i').
    { unfold inline_keyval. rewrite (bind_ok _ _ _ _ _ Hk).
      apply bind_cut. apply cut_err_cut.
      assert (Hsep : context (byte_ KEYVAL_SEP) i3 = Ok x3d i4).
      { unfold context. rewrite (byte_ok KEYVAL_SEP i3 _ Hr3). reflexivity. }
      rewrite (bind_ok _ _ _ _ _ Hsep).
      assert (Hws : span_ ws i4 = Ok (pos i4, (pos i4 + 0)%N) i5).
      { unfold span_. rewrite (ws_stop i4 _ _ Hr4 eq_refl). reflexivity. }
      rewrite (bind_ok _ _ _ _ _ Hws). apply bind_cut. exact Hi'. }
    assert (Ht : inline_table (value_f f) i1 = Cut (err_of RecursionLimit) i').
    { unfold inline_table. rewrite (bind_ok _ _ _ _ _ (byte_ok INLINE_TABLE_OPEN i1 _ H1)).
      fold i2. apply bind_cut. apply cut_err_cut. apply try_map_cut. apply bind_cut.
      unfold separated0. rewrite Hkv. reflexivity. }
    rewrite Ht. eexists; reflexivity.
Qed.

(* ---- from the value to the document ------------------------------------------------------ *)
Section DocLimit.
  Variable vt : bytes.          (* the text of the value *)
  Variable b0 : byte.
  Variable r0 : bytes.
  Hypothesis Hvt : vt = b0 :: r0.
  Hypothesis Hb0 : in_class WSCHAR b0 = false.
  (* the one input at which the document `a=`vt reaches its value *)
  Hypothesis Hval : exists i', value_ (mkIn vt 2 0) = Cut (err_of RecursionLimit) i'.

  Lemma parse_keyval_limit :
    exists i', parse_keyval (mkIn (x61 :: x3d :: vt) 0 0) = Cut (err_of RecursionLimit) i'.
  Proof.
    assert (Hk : exists kp, key_ (mkIn (x61 :: x3d :: vt) 0 0) = Ok kp (mkIn (x3d :: vt) 1 0)) by (eexists; reflexivity).
    destruct Hk as [kp Hk]. destruct Hval as [i' Hv]. exists i'.
    unfold parse_keyval. rewrite (bind_ok _ _ _ _ _ Hk).
    set (i2 := mkIn (x3d :: vt) 1 0). set (i3 := advance 1 i2).
    assert (Hr3 : rest i3 = b0 :: r0) by (rewrite <- Hvt; reflexivity).
    apply bind_cut. apply cut_err_cut.
    assert (Hsep : context (byte_ KEYVAL_SEP) i2 = Ok x3d i3).
    { unfold context. rewrite (byte_ok KEYVAL_SEP i2 vt eq_refl). reflexivity. }
    rewrite (bind_ok _ _ _ _ _ Hsep).
    assert (Hws : span_ ws i3 = Ok (pos i3, (pos i3 + 0)%N) (advance 0 i3)).
    { unfold span_. rewrite (ws_stop i3 _ _ Hr3 Hb0). reflexivity. }
    rewrite (bind_ok _ _ _ _ _ Hws). apply bind_cut. exact Hv.
  Qed.

  Lemma doc_line_limit st :
    exists i', doc_line st (mkIn (x61 :: x3d :: vt) 0 0) = Cut (err_of RecursionLimit) i'.
  Proof.
    destruct parse_keyval_limit as [i' H]. exists i'.
    unfold doc_line.
    set (i := mkIn (x61 :: x3d :: vt) 0 0) in *.
    rewrite (bind_ok (peek any) _ i x61 i eq_refl).
    apply bind_cut.
    change (byte_eqb "a" COMMENT_START_SYMBOL) with false.
    change (byte_eqb "a" STD_TABLE_OPEN) with false.
    change (byte_eqb "a" LF || byte_eqb "a" CR) with false. cbv iota.
    apply cut_err_cut. unfold keyval. apply try_map_cut. exact H.
  Qed.

  Lemma document_limit :
    exists i', document (new_input ([x61; x3d] ++ vt)) = Cut (err_of RecursionLimit) i'.
  Proof.
    unfold document, new_input. cbn [app].
    set (i0 := mkIn (x61 :: x3d :: vt) 0%N 0).
    rewrite (bind_ok (opt (lit bom)) _ i0 None i0 eq_refl).
    assert (Hws : parse_ws state_new i0 = Ok (on_ws state_new (pos i0, (pos i0 + 0)%N)) (advance 0 i0)).
    { unfold parse_ws, pmap, span_. rewrite (ws_stop i0 x61 _ eq_refl eq_refl). reflexivity. }
    rewrite (bind_ok _ _ _ _ _ Hws).
    destruct (doc_line_limit (on_ws state_new (pos i0, (pos i0 + 0)%N))) as [i' H].
    exists i'. apply bind_cut. cbn [doc_loop].
    change (advance 0 i0) with (mkIn (x61 :: x3d :: vt) 0 0).
    rewrite H. reflexivity.
  Qed.

  Lemma doc_value_limit :
    exists at_, parse_document ([x61; x3d] ++ vt) = PErr (err_of RecursionLimit) (Some at_).
  Proof.
    destruct document_limit as [i' H].
    exists (pos i'). unfold parse_document, parse_all.
    rewrite (bind_cut _ _ _ _ _ H). reflexivity.
  Qed.
End DocLimit.

Lemma value_inlines_limit i m tl : depth i = 0 -> LIMIT <= m -> rest i = braces m ++ tl ->
  exists i', value_ i = Cut (err_of RecursionLimit) i'.
Proof.
  intros Hd Hm Hr. unfold value_. pose proof LIMIT_ge2 as HL.
  apply (inlines_limit (LIMIT - 1) _ i m tl); [lia|lia| |exact Hr].
  rewrite Hr, app_length. unfold braces.
  assert (Hlen : forall k, k <= length (concat (repeat [x7b; x6b; x3d] k))).
  { induction k as [|k IHk]; [lia|]. cbn [repeat concat app length]. lia. }
  specialize (Hlen m). lia.
Qed.

(* `a=[[[[...` : at least LIMIT opening brackets, anything after them *)
Lemma doc_arrays_limit m tl : LIMIT <= m ->
  exists at_, parse_document ([x61; x3d] ++ repeat x5b m ++ tl) = PErr (err_of RecursionLimit) (Some at_).
Proof.
  intro Hm. destruct m as [|m]; [pose proof LIMIT_ge2; lia|].
  apply (doc_value_limit _ x5b (repeat x5b m ++ tl) eq_refl eq_refl).
  exact (value_arrays_limit (mkIn _ 2 0) (S m) tl eq_refl Hm eq_refl).
Qed.

(* `a={k={k={k=...` : at least LIMIT times `{k=`, anything after them *)
Lemma doc_inlines_limit m tl : LIMIT <= m ->
  exists at_, parse_document ([x61; x3d] ++ braces m ++ tl) = PErr (err_of RecursionLimit) (Some at_).
Proof.
  intro Hm. destruct m as [|m]; [pose proof LIMIT_ge2; lia|].
  apply (doc_value_limit _ x7b ([x6b; x3d] ++ braces m ++ tl) eq_refl eq_refl).
  exact (value_inlines_limit (mkIn _ 2 0) (S m) tl eq_refl Hm eq_refl).
Qed.
