(* Proofs/PrintBackDisplay.v — C03: Display of a tree is the concatenation of the texts of its visible
   tables in the order of their positions (`display_entries`, for any notion of visible table and of
   its text that visit_table agrees with); `display_sections`: class (c), a tree of sections. *)
From TV Require Import Base.Prelude Gen.Consts.
From TV Require Import Model.Tree Model.Encode.
From TV Require Import Proofs.PrintBackBase Proofs.PrintBackSort Proofs.PrintBackEnts.
Require Import Lia ZifyBool ZifyN ZifyNat Sorting.Sorted Sorting.Permutation.

Definition etbl (e : entry) : tbl := fst (fst e).
Definition epos (e : entry) : N := match t_position (etbl e) with Some q => q | None => 0%N end.
Lemma assign_positions_map s : forall l last,
  assign_positions last (map (tent s) l) = map (on_snd (tent s)) (assign_positions last l).
Proof.
  induction l as [|[[t p] a] l IH]; intro last; [reflexivity|]. cbn [map tent assign_positions].
  rewrite ttbl_fields. cbn [t_position]. rewrite <- ttbl_fields. rewrite IH. reflexivity.
Qed.

Lemma assign_In : forall l last q e, In (q, e) (assign_positions last l) -> In e l.
Proof.
  induction l as [|[[t p] a] l IH]; intros last q e H; [destruct H|]. cbn [assign_positions] in H.
  destruct H as [H | H]; [injection H as _ <-; left; reflexivity|right; eapply IH; eassumption].
Qed.

Section Entries.
  Variable s : bytes.
  Variable good : tbl -> Prop.           (* the tables of the class considered *)
  Variable vis : entry -> bool.          (* the tables below the root that print *)
  Variable txt : entry -> bytes.         (* what a table prints *)
  Hypothesis visit_invisible : forall t p a b, good t -> p <> [] -> vis (t, p, a) = false ->
    visit_table (ttbl s t) (map (tkey s) p) a b = ([], b).
  Hypothesis visit_visible : forall t p a b, good t -> (p = [] \/ (vis (t, p, a) = true /\ decor_some (t_decor t))) ->
    fst (visit_table (ttbl s t) (map (tkey s) p) a b) = txt (t, p, a).

  Definition rvis (e : entry) : bool := match epath e with [] => true | _ => vis e end.

  Lemma assign_filter : forall l last, Forall (fun e => vis e = true -> t_position (etbl e) <> None) l ->
    filter (fun x => vis (snd x)) (assign_positions last l) = map (fun e => (epos e, e)) (filter vis l).
  Proof.
    induction l as [|[[t p] a] l IH]; intros last H; [reflexivity|]. inversion H as [|? ? He Hl]; subst.
    cbn [assign_positions filter snd]. destruct (vis (t, p, a)) eqn:V.
    - cbn [map]. rewrite (IH _ Hl). f_equal. specialize (He eq_refl). unfold epos, etbl in *. cbn [fst] in *.
      destruct (t_position t); [reflexivity|congruence].
    - apply IH, Hl.
  Qed.

  Theorem display_entries r tr :
    good r -> t_dotted r = false -> t_decor r = decor_default -> t_position r = None ->
    Forall (fun e => good (etbl e) /\ epath e <> []) (sub_ents (t_items r) []) ->
    Forall (fun e => vis e = true -> t_position (etbl e) <> None /\ decor_some (t_decor (etbl e))) (sub_ents (t_items r) []) ->
    display_document (ttbl s r) tr
    = concat (map snd (stable_sort (map (fun e => (epos e, txt e)) ((r, [], false) :: filter vis (sub_ents (t_items r) [])))))
      ++ raw_encode tr [].
  Proof.
    intros Hs Hnd Hd Hp Hrest Hw. set (rest := sub_ents (t_items r) []) in *.
    unfold display_document. rewrite (nested_tables_ents _ _ _ _ (Nat.lt_succ_diag_r _)), ents_ttbl_root, ents_eq, Hnd. fold rest. cbn [app].
    rewrite assign_positions_map. cbn [assign_positions]. rewrite Hp.
    set (root := (r, @nil key, false)). set (L0 := (0%N, root) :: assign_positions 0 rest).
    rewrite <- stable_sort_map.
    assert (Hdec : decor_prefix (t_decor (ttbl s r)) (fst DEFAULT_ROOT_DECOR) = [] /\ decor_suffix (t_decor (ttbl s r)) (snd DEFAULT_ROOT_DECOR) = []).
    { rewrite ttbl_fields. cbn [t_decor]. rewrite Hd. split; reflexivity. }
    destruct Hdec as [-> ->]. cbn [app]. f_equal.
    (* entries of L0 *)
    assert (HL0 : forall q e, In (q, e) (stable_sort L0) -> e = root \/ In e rest).
    { intros q e H. apply (Permutation_in _ (stable_sort_perm L0)) in H. destruct H as [H | H]; [injection H as _ <-; left; reflexivity|].
      right. eapply assign_In, H. }
    rewrite (visit_tables_filter (tent s) (fun x => rvis (snd x))).
    2:{ intros q e b0 Hin Hv. cbn [snd] in Hv. destruct (HL0 q e Hin) as [-> | He]; [discriminate Hv|].
        rewrite Forall_forall in Hrest. destruct (Hrest e He) as [H1 H2]. destruct e as [[t p] a]. unfold etbl, epath in *. cbn [fst snd] in *.
        cbn [tent]. apply visit_invisible; [exact H1|exact H2|]. unfold rvis, epath in Hv. cbn [fst snd] in Hv. destruct p; [congruence|exact Hv]. }
    rewrite stable_sort_filter.
    assert (EL1 : filter (fun x : N * entry => rvis (snd x)) L0 = (0%N, root) :: map (fun e => (epos e, e)) (filter vis rest)).
    { unfold L0. cbn [filter snd]. change (rvis root) with true. cbv iota. f_equal.
      rewrite <- (assign_filter rest 0%N).
      - apply filter_ext_in. intros [q e] Hin. cbn [snd]. apply assign_In in Hin. rewrite Forall_forall in Hrest. destruct (Hrest e Hin) as [_ H2].
        unfold rvis. destruct (epath e); [congruence|reflexivity].
      - eapply Forall_impl; [|exact Hw]. intros e He Hv. apply (He Hv). }
    rewrite EL1. set (L1 := (0%N, root) :: map (fun e => (epos e, e)) (filter vis rest)).
    assert (HL1 : forall q e, In (q, e) (stable_sort L1) -> e = root \/ (In e rest /\ vis e = true)).
    { intros q e H. apply (Permutation_in _ (stable_sort_perm L1)) in H. destruct H as [H | H]; [injection H as _ <-; left; reflexivity|].
      right. apply in_map_iff in H as (e0 & E0 & H). injection E0 as _ ->. apply filter_In in H. exact H. }
    rewrite (visit_tables_concat (tent s) txt).
    2:{ intros q e b0 Hin. destruct (HL1 q e Hin) as [-> | [He Hv]].
        - cbn [root tent]. apply (visit_visible r [] false b0 Hs). left. reflexivity.
        - rewrite Forall_forall in Hrest, Hw. destruct (Hrest e He) as [H1 H2]. destruct (Hw e He Hv) as [_ H4]. destruct e as [[t p] a].
          unfold epath, etbl in *. cbn [fst snd] in *. cbn [tent]. apply visit_visible; [exact H1|]. right. split; assumption. }
    transitivity (concat (map snd (map (on_snd txt) (stable_sort L1)))); [rewrite map_map; reflexivity|].
    rewrite stable_sort_map. do 3 f_equal. unfold L1. cbn [map]. f_equal.
    - unfold on_snd, epos, etbl, root. cbn [fst snd]. rewrite Hp. reflexivity.
    - rewrite map_map. reflexivity.
  Qed.
End Entries.

Theorem display_sections s r tr :
  sec_tbl r = true -> t_decor r = decor_default -> t_position r = None ->
  Forall (fun e => svis e = true -> t_position (etbl e) <> None /\ decor_some (t_decor (etbl e))) (sub_ents (t_items r) []) ->
  display_document (ttbl s r) tr
  = concat (map snd (stable_sort (map (fun e => (epos e, etxt s e)) ((r, [], false) :: filter svis (sub_ents (t_items r) [])))))
    ++ raw_encode tr [].
Proof.
  intros Hs Hd Hp Hw.
  assert (Hnd : t_dotted r = false) by (rewrite sec_tbl_eq in Hs; apply andb_true_iff in Hs as [H _]; destruct (t_dotted r); [discriminate|reflexivity]).
  apply (display_entries s (fun t => sec_tbl t = true) svis (etxt s) (visit_invisible s) (visit_visible s) r tr Hs Hnd Hd Hp (sub_ents_sec r Hs) Hw).
Qed.
