(* Proofs/WFTree.v — WF backbone: the document tree as the printer sees it.
     sb_tbl t        the tree of Proofs/WFSemDoc.v (`snode`) of a table: values, tables made of dotted keys (dotted
                     tables and dotted inline tables alike), header tables (hidden when no `[header]` is printed for
                     them), arrays of tables;
     abs_doc_of t    the data Display of the tree defines: in every table the entries its key/value lines define
                     first, then its sub-tables and arrays of tables;
     tflat           the key/value lines of a section (Model/Encode.v table_values, fuel-free);
   and the facts that connect them: `table_values` / `nested_tables` with the fuel Display gives them are `tflat` /
   `sections`; the lines of a section, as data, are the dotted forest of its body; a well-formed table gives a
   well-formed `snode` tree. *)
From TV Require Import Base.Prelude Spec.Defs Spec.Syntax Spec.WF.
From TV Require Import Model.Tree Model.Encode.
From TV Require Import Proofs.SpansDefs.
From TV Require Import Proofs.WFSem Proofs.WFSemDoc Proofs.WFPrintKey Proofs.WFPrintFlat.
From TV Require Import Proofs.KvFacts.
From TV Require Import Proofs.ModelFacts.
Require Import Lia.
From TV Require Import Base.ListFacts.

(* ---- a dotted forest as a tree --------------------------------------------------------------------------------------- *)
Section SnDn.
  Variable V : Type.

  Lemma dnode_ind' (P : dnode V -> Prop) :
    (forall v, P (DV v)) -> (forall l, Forall P (map snd l) -> P (DT l)) -> forall n, P n.
  Proof.
    intros H1 H2. fix IH 1. intros [v|l]; [apply H1|]. apply H2.
    induction l as [|[k n] l IHl]; constructor; [apply IH|exact IHl].
  Qed.

  Fixpoint sn_dn (d : dnode V) : snode V :=
    match d with
    | DV v => SV v
    | DT l => SD (map (fun kn => (fst kn, sn_dn (snd kn))) l)
    end.
  Definition sb_dn (l : list (bytes * dnode V)) : sbody V := map (fun kn => (fst kn, sn_dn (snd kn))) l.

  Lemma dpart_node_sn_dn : forall d, dpart_node V (sn_dn d) = Some d.
  Proof.
    induction d as [v|l IH] using dnode_ind'; [reflexivity|]. cbn [sn_dn dpart_node]. do 2 f_equal.
    induction l as [|[k n] l IHl]; [reflexivity|]. cbn [map fst snd flat_map] in *. inversion IH as [|? ? H1 H2]; subst.
    rewrite H1. cbn [app]. f_equal. exact (IHl H2).
  Qed.
  Lemma dpart_sb_dn l : dpart V (sb_dn l) = l.
  Proof.
    unfold dpart, sb_dn. induction l as [|[k n] l IH]; [reflexivity|]. cbn [map flat_map fst snd]. rewrite dpart_node_sn_dn, IH. reflexivity.
  Qed.
  Lemma node_secs_sn_dn : forall d P, node_secs V P (sn_dn d) = [].
  Proof.
    induction d as [v|l IH] using dnode_ind'; intro P; [reflexivity|]. cbn [sn_dn]. rewrite node_secs_SD. unfold secs.
    induction l as [|[k n] l IHl]; [reflexivity|]. cbn [map fst snd flat_map] in *. inversion IH as [|? ? H1 H2]; subst.
    rewrite H1, (IHl H2). reflexivity.
  Qed.
  Lemma secs_sb_dn P l : secs V P (sb_dn l) = [].
  Proof.
    unfold secs, sb_dn. induction l as [|[k n] l IH]; [reflexivity|]. cbn [map flat_map fst snd]. rewrite node_secs_sn_dn, IH. reflexivity.
  Qed.
  Lemma node_res_sn_dn : forall d, node_res V (sn_dn d) = [dres_node V d].
  Proof.
    induction d as [v|l IH] using dnode_ind'; [reflexivity|]. cbn [sn_dn]. rewrite node_res_SD. cbn [dres_node]. do 2 f_equal.
    unfold bres, lres, sres.
    induction l as [|[k n] l IHl]; [reflexivity|]. cbn [map fst snd flat_map] in *. inversion IH as [|? ? H1 H2]; subst.
    specialize (IHl H2). rewrite H1.
    assert (E2 : (match sn_dn n with ST _ _ | SA _ => map (fun r => (k, r)) [dres_node V n] | _ => [] end) = []) by (destruct n; reflexivity).
    assert (E1 : (match sn_dn n with SV _ | SD _ => map (fun r => (k, r)) [dres_node V n] | _ => [] end) = [(k, dres_node V n)]) by (destruct n; reflexivity).
    rewrite E1, E2. cbn [app]. f_equal. exact IHl.
  Qed.
  Lemma swf_sn_dn : forall d, dwf_node V d -> swf V (sn_dn d).
  Proof.
    apply (dwf_node_strong V (fun d => swf V (sn_dn d))); [constructor|]. intros l Hne Hnd _ IH. cbn [sn_dn]. fold (sb_dn l). constructor.
    - unfold sb_dn. rewrite map_map. exact Hnd.
    - unfold sb_dn. rewrite map_map. cbn [snd]. rewrite Forall_map in *. exact IH.
    - rewrite dpart_sb_dn. exact Hne.
  Qed.
End SnDn.
Arguments sn_dn {V}. Arguments sb_dn {V}.

(* ---- induction over the tables of a table ------------------------------------------------------------------------------ *)
Lemma tbl_sub_ind (P : tbl -> Prop) :
  (forall items d im dt p sp,
      Forall (fun kv : key * item => match snd kv with ITable sub => P sub | IAot ts _ => Forall P ts | _ => True end) items ->
      P (Tbl items d im dt p sp)) ->
  forall t, P t.
Proof.
  intro H.
  refine (proj2 (proj2 (tree_ind3 (fun _ => True)
    (fun it => match it with ITable sub => P sub | IAot ts _ => Forall P ts | _ => True end) P _ _ _ _ _ _ _ _))); auto.
Qed.

(* ---- the tree ------------------------------------------------------------------------------------------------------------ *)
Fixpoint sb_tbl (t : tbl) : sbody dval :=
  match t with
  | Tbl items _ _ _ _ _ =>
    map (fun kv => (k_key (fst kv),
                    match snd kv with
                    | ITable sub =>
                      if t_dotted sub then (if has_line sub then SD (sb_tbl sub) else ST true (sb_tbl sub))
                      else ST (negb (shown sub)) (sb_tbl sub)
                    | IAot ts _ => SA (map sb_tbl ts)
                    | IValue v => sn_dn (dn_item (IValue v))
                    | INone => SA []
                    end)) items
  end.
Definition sn_item (it : item) : snode dval :=
  match it with
  | ITable sub =>
    (* a table made of dotted keys lives in the lines of the enclosing section; when it has no line left, the text
       mentions it only through the headers below it: it is a super-table of those *)
    if t_dotted sub then (if has_line sub then SD (sb_tbl sub) else ST true (sb_tbl sub))
    else ST (negb (shown sub)) (sb_tbl sub)
  | IAot ts _ => SA (map sb_tbl ts)
  | IValue v => sn_dn (dn_item (IValue v))
  | INone => SA []
  end.
Lemma sb_tbl_eq t : sb_tbl t = map (fun kv => (k_key (fst kv), sn_item (snd kv))) (t_items t).
Proof. destruct t; reflexivity. Qed.

(* the data Display of the tree defines *)
Definition abs_doc_of (root : tbl) : stree dval := bres dval (sb_tbl root).

(* ---- the key/value lines of a section ------------------------------------------------------------------------------------ *)
Fixpoint tflat (parent : list key) (t : tbl) {struct t} : list (list key * value) :=
  match t with
  | Tbl items _ _ _ _ _ =>
    flat_map (fun kv => match snd kv with
                        | ITable sub => if t_dotted sub then tflat (parent ++ [fst kv]) sub else []
                        | IValue v => iflat_item parent (fst kv) (IValue v)
                        | _ => []
                        end) items
  end.
Definition tflat_item (parent : list key) (k : key) (it : item) : list (list key * value) :=
  match it with
  | ITable sub => if t_dotted sub then tflat (parent ++ [k]) sub else []
  | IValue v => iflat_item parent k (IValue v)
  | _ => []
  end.
Lemma tflat_eq parent t : tflat parent t = flat_map (fun kv => tflat_item parent (fst kv) (snd kv)) (t_items t).
Proof. destruct t; reflexivity. Qed.

Lemma has_line_eq t : has_line t = existsb (fun kv => match snd kv with IValue _ => true | ITable sub => t_dotted sub && has_line sub | _ => false end) (t_items t).
Proof. destruct t; reflexivity. Qed.

(* a table without a line of its own gives no line *)
Lemma no_line_tflat : forall t parent, has_line t = false -> tflat parent t = [].
Proof.
  induction t as [items d im dt p sp IH] using tbl_sub_ind. intros parent. rewrite has_line_eq, tflat_eq. cbn [t_items].
  induction items as [|[k it] items IHi]; [reflexivity|]. inversion IH as [|? ? H1 H2]; subst. cbn [existsb flat_map fst snd].
  intro H. apply orb_false_iff in H as [Ha Hb]. rewrite (IHi H2 Hb), app_nil_r.
  destruct it as [|v|sub|ts asp]; try reflexivity; [discriminate|]. cbn [tflat_item]. destruct (t_dotted sub); [|reflexivity].
  cbn [andb] in Ha. apply (H1 _ Ha).
Qed.

Lemma tbl_size_ksz items d im dt p sp : tbl_size (Tbl items d im dt p sp) = S (ksz items).
Proof.
  cbn [tbl_size]. f_equal. unfold ksz. induction items as [|[k i0] tl IH]; [reflexivity|]. cbn [fold_right snd]. rewrite IH. reflexivity.
Qed.
Lemma tbl_size_items t : tbl_size t = S (ksz (t_items t)).
Proof. destruct t. apply tbl_size_ksz. Qed.

(* table_values with enough fuel *)
Lemma table_values_eq : forall t f parent, tbl_size t <= f -> table_values f parent (t_items t) = tflat parent t.
Proof.
  induction t as [items d im dt p sp IH] using tbl_sub_ind. intros f parent Hf. rewrite tbl_size_ksz in Hf.
  destruct f as [|f]; [lia|]. cbn [t_items table_values tflat]. apply flat_map_ext_in. intros [k it] Hin. cbn [fst snd].
  pose proof (ksz_in items k it Hin) as Hsz. rewrite Forall_forall in IH. specialize (IH _ Hin). cbn [snd] in IH.
  destruct it as [|v|sub|ts asp].
  - reflexivity.
  - destruct v as [x r dd|vals tr c dd vsp|sub pre vim vdt dd vsp]; try reflexivity. destruct vdt; [|reflexivity].
    cbn [iflat_item]. cbn [item_size] in Hsz. rewrite value_size_inline in Hsz. rewrite inline_values_eq by lia. reflexivity.
  - cbn [item_size] in Hsz. destruct sub as [sitems sd sim sdt spn ssp]. cbn [t_dotted]. destruct sdt; [|reflexivity].
    apply (IH f (parent ++ [k])). lia.
  - reflexivity.
Qed.
Lemma section_lines_eq t : table_values (S (tbl_size t)) [] (t_items t) = tflat [] t.
Proof. apply table_values_eq. lia. Qed.

(* nested_tables with enough fuel *)
Lemma nested_tables_eq : forall t f path arr, tbl_size t <= f -> nested_tables f t path arr = sections t path arr.
Proof.
  induction t as [items d im dt p sp IH] using tbl_sub_ind. intros f path arr Hf. rewrite tbl_size_ksz in Hf.
  destruct f as [|f]; [lia|]. cbn [nested_tables sections t_items]. f_equal. apply flat_map_ext_in. intros [k it] Hin. cbn [fst snd].
  pose proof (ksz_in items k it Hin) as Hsz. rewrite Forall_forall in IH. specialize (IH _ Hin). cbn [snd] in IH.
  destruct it as [|v|sub|ts asp]; try reflexivity.
  - cbn [item_size] in Hsz. apply IH. lia.
  - cbn [item_size] in Hsz. apply flat_map_ext_in. intros e He. rewrite Forall_forall in IH. apply (IH e He).
    pose proof (tbl_size_in ts e He). lia.
Qed.
Lemma doc_sections_eq root : nested_tables (S (tbl_size root)) root [] false = sections root [] false.
Proof. apply nested_tables_eq. lia. Qed.

(* ---- the lines of a section, as data, are the dotted forest of its body ---------------------------------------------- *)
Lemma dpart_sb_tbl t :
  dpart dval (sb_tbl t)
  = flat_map (fun kv => match dpart_node dval (sn_item (snd kv)) with Some d => [(k_key (fst kv), d)] | None => [] end) (t_items t).
Proof.
  rewrite sb_tbl_eq. unfold dpart. induction (t_items t) as [|[k it] l IH]; [reflexivity|]. cbn [map flat_map fst snd]. rewrite IH. reflexivity.
Qed.

Lemma tflat_dflat : forall t parent,
  map pv_abs (tflat parent t)
  = map (fun pv => (ktexts parent ++ fst pv, snd pv)) (dflat dval (dpart dval (sb_tbl t))).
Proof.
  induction t as [items d im dt p sp IH] using tbl_sub_ind. intro parent. rewrite dpart_sb_tbl. cbn [t_items tflat].
  unfold dflat. induction items as [|[k it] items IHi]; [reflexivity|]. inversion IH as [|? ? H1 H2]; subst. specialize (IHi H2).
  cbn [flat_map fst snd]. rewrite map_app, IHi. rewrite flat_map_app, map_app. f_equal. clear IHi H2 IH.
  assert (Ek : ktexts (parent ++ [k]) = ktexts parent ++ [k_key k]) by (unfold ktexts; rewrite map_app; reflexivity).
  destruct it as [|v|sub|ts asp]; cbn [sn_item snd] in *.
  - reflexivity.
  - rewrite dpart_node_sn_dn. cbn [flat_map fst snd]. rewrite app_nil_r. apply iflat_item_dflat.
  - destruct (t_dotted sub); [|reflexivity]. destruct (has_line sub) eqn:Hl; [|cbn [dpart_node flat_map]; rewrite (no_line_tflat sub _ Hl); reflexivity].
    cbn [dpart_node flat_map fst snd]. rewrite app_nil_r. fold (dpart dval (sb_tbl sub)).
    rewrite (H1 (parent ++ [k])). cbn [dflat_node]. fold (dflat dval (dpart dval (sb_tbl sub))). rewrite !map_map. apply map_ext.
    intros [q x]. cbn [fst snd]. rewrite Ek, <- app_assoc. reflexivity.
  - reflexivity.
Qed.
Lemma tflat_lines t : map pv_abs (tflat [] t) = dflat dval (dpart dval (sb_tbl t)).
Proof.
  rewrite tflat_dflat. cbn [ktexts map app]. rewrite <- (map_id (dflat _ _)) at 2. apply map_ext. intros [q x]. reflexivity.
Qed.

(* ---- which tables have lines, which print headers ------------------------------------------------------------------------ *)
Lemma tbl_wf_items top t :
  tbl_wf top t ->
  NoDup (kkeys (t_items t))
  /\ forall k it, In (k, it) (t_items t) ->
       key_wf true k /\
       match it with
       | INone => False
       | IValue _ => pair_wf true it
       | ITable sub => tbl_wf false sub /\ (if t_dotted sub then has_line sub = true \/ prints_header sub = true
                                            else shown sub = true \/ prints_header sub = true)
       | IAot ts _ => ts <> [] /\ forall e, In e ts -> t_dotted e = false /\ tbl_wf false e
       end.
Proof.
  destruct t as [items d im dt p sp]. cbn [tbl_wf t_items]. intros (_ & Hnd & Hall). split; [exact Hnd|]. intros k it Hin.
  pose proof (all_P_In _ _ _ Hall Hin) as [Hk Hit]. cbn [fst snd] in *. split; [exact Hk|].
  destruct it as [|v|sub|ts asp]; auto. destruct Hit as [Hne Hts]. split; [exact Hne|]. intros e He. exact (all_P_In _ _ _ Hts He).
Qed.

Lemma dpart_nil_iff t : (forall k, ~ In (k, INone) (t_items t)) -> (dpart dval (sb_tbl t) = [] <-> has_line t = false).
Proof.
  intro Hn. rewrite dpart_sb_tbl, has_line_eq. induction (t_items t) as [|[k it] l IH]; [split; reflexivity|]. cbn [flat_map existsb fst snd].
  assert (IH' := IH (fun k' H => Hn k' (or_intror H))). clear IH.
  destruct it as [|v|sub|ts asp]; cbn [sn_item].
  - exfalso. apply (Hn k). left. reflexivity.
  - rewrite dpart_node_sn_dn. split; discriminate.
  - destruct (t_dotted sub); [destruct (has_line sub)|]; cbn [dpart_node andb orb app]; [split; discriminate|exact IH'|exact IH'].
  - cbn [dpart_node orb app]. exact IH'.
Qed.
Lemma no_none top t : tbl_wf top t -> forall k, ~ In (k, INone) (t_items t).
Proof. intros Hw k Hin. destruct (tbl_wf_items top t Hw) as [_ Hit]. exact (proj2 (Hit _ _ Hin)). Qed.
Lemma has_line_dpart top t : tbl_wf top t -> (has_line t = false <-> dpart dval (sb_tbl t) = []).
Proof. intro Hw. symmetry. apply dpart_nil_iff, (no_none top), Hw. Qed.

(* a header printed for or below a table makes a section *)
Lemma prints_header_eq t :
  prints_header t = existsb (fun kv => match snd kv with
                                       | ITable sub => (negb (t_dotted sub) && shown sub) || prints_header sub
                                       | IAot ts _ => match ts with [] => false | _ => true end
                                       | _ => false
                                       end) (t_items t).
Proof. destruct t; reflexivity. Qed.
Lemma secs_sb_tbl P t : secs dval P (sb_tbl t) = flat_map (fun kv => node_secs dval (P ++ [k_key (fst kv)]) (sn_item (snd kv))) (t_items t).
Proof. rewrite sb_tbl_eq. unfold secs. induction (t_items t) as [|[k it] l IH]; [reflexivity|]. cbn [map flat_map fst snd]. rewrite IH. reflexivity. Qed.

Lemma prints_header_secs : forall t P, prints_header t = true -> secs dval P (sb_tbl t) <> [].
Proof.
  induction t as [items d im dt p sp IH] using tbl_sub_ind. intros P. rewrite prints_header_eq, secs_sb_tbl. cbn [t_items].
  induction items as [|[k it] items IHi]; [discriminate|]. inversion IH as [|? ? H1 H2]; subst. cbn [existsb flat_map fst snd].
  intro H. apply orb_true_iff in H as [H|H].
  - intro E. apply app_eq_nil in E as [E _]. destruct it as [|v|sub|ts asp]; try discriminate; cbn [sn_item snd] in *.
    + destruct (t_dotted sub) eqn:Ed.
      * cbn [negb andb orb] in H. destruct (has_line sub); [rewrite node_secs_SD in E; exact (H1 _ H E)|].
        rewrite node_secs_ST in E. cbn [app] in E. unfold body_stmts in E. apply app_eq_nil in E as [_ E]. exact (H1 _ H E).
      * rewrite node_secs_ST in E. cbn [negb andb orb] in H. destruct (shown sub); [discriminate|]. cbn [negb app orb] in *.
        unfold body_stmts in E. apply app_eq_nil in E as [_ E]. exact (H1 _ H E).
    + destruct ts; [discriminate|]. rewrite node_secs_SA in E. discriminate.
  - intro E. apply app_eq_nil in E as [_ E]. exact (IHi H2 H E).
Qed.

(* ---- a well-formed table is a well-formed tree --------------------------------------------------------------------------- *)
Lemma sb_tbl_keys t : map fst (sb_tbl t) = kkeys (t_items t).
Proof. rewrite sb_tbl_eq, map_map. reflexivity. Qed.

Lemma tbl_swf : forall t top, tbl_wf top t -> swf_body dval (sb_tbl t).
Proof.
  induction t as [items d im dt p sp IH] using tbl_sub_ind. intros top Hw.
  destruct (tbl_wf_items top _ Hw) as [Hnd Hit]. split; [rewrite sb_tbl_keys; exact Hnd|].
  rewrite sb_tbl_eq, map_map. cbn [snd t_items] in *. apply Forall_map. apply Forall_forall. intros [k it] Hin. cbn [snd].
  rewrite Forall_forall in IH. specialize (IH _ Hin). cbn [snd] in IH. destruct (Hit k it Hin) as [_ Hi].
  destruct it as [|v|sub|ts asp]; cbn [sn_item].
  - contradiction.
  - apply swf_sn_dn. apply (dn_item_wf true). exact Hi.
  - destruct Hi as [Hs Hf]. destruct (IH false Hs) as [Hnd' Hl']. destruct (t_dotted sub).
    + destruct (has_line sub) eqn:Hln.
      * constructor; [exact Hnd'|exact Hl'|]. intro E. apply (has_line_dpart false sub Hs) in E. congruence.
      * constructor; [exact Hnd'|exact Hl'|]. intros _. destruct Hf as [Hf|Hf]; [discriminate|].
        split; [apply (has_line_dpart false sub Hs), Hln|apply prints_header_secs, Hf].
    + constructor; [exact Hnd'|exact Hl'|]. intro Hh. apply negb_true_iff in Hh. destruct Hf as [Hf|Hf]; [congruence|].
      split; [|apply prints_header_secs, Hf]. apply (has_line_dpart false sub Hs). unfold shown in Hh. apply negb_false_iff in Hh.
      apply andb_true_iff in Hh as [_ Hh]. apply negb_true_iff in Hh. exact Hh.
  - destruct Hi as [_ Hts]. constructor. apply Forall_map. apply Forall_forall. intros e He. rewrite Forall_forall in IH.
    destruct (Hts e He) as [_ Hwe]. exact (IH e He false Hwe).
Qed.

(* hence the statements of the tree define `abs_doc_of` (Proofs/WFSemDoc.v body_defines) *)
Theorem tree_defines root : tbl_wf true root -> run true (body_stmts dval [] (sb_tbl root)) = Valid (abs_doc_of root).
Proof. intro Hw. apply body_defines. apply (tbl_swf root true Hw). Qed.
