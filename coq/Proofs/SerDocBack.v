(* Proofs/SerDocBack.v — C07 through text: the abstract tree of the printed-and-parsed document (values before
   tables: Model/Build.v `printed_entries`), read as the value tree the deserializer walks (Model/SerDoc.v
   `tomlval_of_abs`), is the tree the serializer produced up to the order of table entries and the payload of NaNs
   (Proofs/SerDocDe.v `tv_equiv`) — the inverse of the layout. *)
From TV Require Import Base.Prelude.
From TV Require Import Model.Numbers Model.Tree Model.Build.
From TV Require Import Proofs.BuiltRTValue Proofs.BuiltRTDocEncode Proofs.BuiltRTDoc.
From TV Require Import Spec.SerdeData Model.SerDoc.
From TV Require Import Proofs.SerdeRTBase Proofs.SerdeRTFmt Proofs.SerDocDe Proofs.SerDocWf Proofs.SerDocBuilt.
From Coq Require Import Permutation.
Require Import Lia.
From TV Require Import Base.ListFacts.

Lemma Forall2_map_r {A B} (R : A -> B -> Prop) (f : A -> B) l : Forall (fun a => R a (f a)) l -> Forall2 R l (map f l).
Proof. induction 1; constructor; assumption. Qed.

Section Back.
  Variable fd : N -> fval.
  Variable back : fval -> N.
  Variable ml : bool.
  Hypothesis Horacle : float_oracle fd back.
  Local Notation vof := (vof fd ml).
  Local Notation iof := (iof fd ml).
  Local Notation ents := (ents fd ml).

  (* -- values: the same tree, floats through the oracle -- *)
  Theorem val_back : forall x, out_ok x = true -> tv_equiv x (tv_of_aval back (abs_value (vof x))).
  Proof.
    induction x using tomlval_ind2; intro Hok; try (unfold SerDocBuilt.vof; cbn; constructor).
    - cbn [out_ok] in Hok. apply N.ltb_lt in Hok. exact (proj2 (Horacle b Hok)).
    - rewrite vof_arr, mk_array_abs. cbn [tv_of_aval]. constructor. rewrite !map_map. apply Forall2_map_r.
      cbn [out_ok] in Hok. apply forallb_Forall in Hok. rewrite Forall_forall in *. intros x Hx. apply (H x Hx (Hok x Hx)).
    - rewrite vof_tab, abs_built_inline. cbn [tv_of_aval]. rewrite !map_map. cbn [fst snd].
      apply (te_tab es es _ (Permutation_refl es)). apply Forall2_map_r.
      destruct (out_ok_tab es Hok) as (_ & _ & Hes). rewrite Forall_forall in *. intros kx Hkx. split; [reflexivity|].
      cbn [snd]. apply (H kx Hkx (Hes kx Hkx)).
  Qed.

  (* -- the abstract node of an item, and its printed form -- *)
  Definition node (x : tomlval) : anode :=
    match x with
    | VTab es => ATbl (abs_tbl (fmt_tbl (ents es)))
    | VArr xs => if all_tabs xs then AAot (map (fun x => abs_tbl (fmt_tbl (snd (tab_pair fd ml x)))) xs)
                 else AVal (abs_value (vof x))
    | _ => AVal (abs_value (vof x))
    end.

  Lemma abs_iof x : abs_item (iof x) = [node x].
  Proof.
    destruct x; try (rewrite iof_line by reflexivity; reflexivity).
    - cbn [node]. destruct (all_tabs xs) eqn:Ea.
      + rewrite (iof_aot fd ml xs Ea). cbn [abs_item]. rewrite !map_map. reflexivity.
      + rewrite iof_line by (cbn [is_line]; rewrite Ea; reflexivity). reflexivity.
    - rewrite iof_tab. reflexivity.
  Qed.

  Lemma abs_ents im es pos : abs_tbl (the_tbl im (ents es) pos) = map (fun kx => (fst kx, node (snd kx))) es.
  Proof.
    rewrite abs_tbl_the. unfold SerDocBuilt.ents. induction es as [|[k x] es IH]; [reflexivity|].
    cbn [map flat_map fst snd]. rewrite abs_iof, IH. reflexivity.
  Qed.

  Definition pent (es : list (bytes * tomlval)) : list (bytes * anode) :=
    printed_entries (map (fun kx => (fst kx, node (snd kx))) es).
  Definition pnode (x : tomlval) : anode :=
    match x with
    | VTab es => ATbl (pent es)
    | VArr xs => if all_tabs xs then AAot (map (fun x => match x with VTab es => pent es | _ => [] end) xs)
                 else AVal (abs_value (vof x))
    | _ => AVal (abs_value (vof x))
    end.

  Lemma printed_tbl l : printed_node (ATbl l) = [ATbl (printed_entries l)].
  Proof. reflexivity. Qed.
  Lemma printed_aot_ne ls : ls <> [] -> printed_node (AAot ls) = [AAot (map printed_entries ls)].
  Proof. destruct ls; [contradiction|reflexivity]. Qed.

  Lemma node_split x :
    (node x = AVal (abs_value (vof x)) /\ pnode x = node x) \/
    ((forall a, node x <> AVal a) /\ printed_node (node x) = [pnode x]).
  Proof.
    destruct x; try (left; split; reflexivity).
    - cbn [node pnode]. destruct (all_tabs xs) eqn:Ea; [|left; split; reflexivity].
      right. split; [discriminate|]. pose proof (all_tabs_forall xs Ea) as Ht.
      rewrite printed_aot_ne by (destruct xs; discriminate). do 2 f_equal.
      rewrite map_map. apply map_ext_Forall. eapply Forall_impl; [|exact Ht]. intros x (es & ->).
      cbn [tab_pair snd]. rewrite fmt_tbl_the, abs_ents. reflexivity.
    - right. split; [discriminate|]. cbn [node pnode]. rewrite printed_tbl, fmt_tbl_the, abs_ents. reflexivity.
  Qed.

  Lemma printed_cons kv L :
    printed_entries (kv :: L)
    = (match snd kv with AVal v => [(fst kv, AVal v)] | _ => [] end ++ val_entries L)
      ++ map (fun r => (fst kv, r)) (printed_node (snd kv))
      ++ flat_map (fun kv => map (fun r => (fst kv, r)) (printed_node (snd kv))) L.
  Proof. reflexivity. Qed.

  Lemma printed_perm es :
    Permutation (pent es) (map (fun kx => (fst kx, pnode (snd kx))) es).
  Proof.
    unfold pent. induction es as [|[k x] es IH]; [apply Permutation_refl|].
    cbn [map fst snd]. rewrite printed_cons. cbn [fst snd].
    destruct (node_split x) as [[E1 E2]|[Hn Ep]].
    - rewrite E2, E1. cbn [printed_node map app]. apply perm_skip. exact IH.
    - rewrite Ep. cbn [map app].
      assert (Ev : match node x with AVal v => [(k, AVal v)] | _ => [] end = []).
      { destruct (node x) eqn:En; try reflexivity. exfalso. apply (Hn v eq_refl). }
      rewrite Ev. cbn [app]. eapply Permutation_trans; [apply Permutation_sym, Permutation_middle|]. apply perm_skip. exact IH.
  Qed.

  Lemma entries_back es :
    Forall (fun kx => tv_equiv (snd kx) (tv_of_anode back (pnode (snd kx)))) es ->
    tv_equiv (VTab es) (VTab (map (fun kv => (fst kv, tv_of_anode back (snd kv))) (pent es))).
  Proof.
    intro H.
    set (Y := map (fun kx : bytes * tomlval => (fst kx, tv_of_anode back (pnode (snd kx)))) es).
    set (fs := map (fun kv : bytes * anode => (fst kv, tv_of_anode back (snd kv))) (pent es)).
    assert (P : Permutation Y fs).
    { unfold Y, fs. apply Permutation_sym.
      replace (map (fun kx : bytes * tomlval => (fst kx, tv_of_anode back (pnode (snd kx)))) es)
        with (map (fun kv : bytes * anode => (fst kv, tv_of_anode back (snd kv))) (map (fun kx => (fst kx, pnode (snd kx))) es))
        by (rewrite map_map; reflexivity).
      apply Permutation_map, printed_perm. }
    assert (F : Forall2 entry_equiv es Y).
    { unfold Y. apply Forall2_map_r. eapply Forall_impl; [|exact H]. intros kx Hx. split; [reflexivity|exact Hx]. }
    destruct (Forall2_perm_r _ _ _ P es F) as (es' & Pe & F').
    apply (te_tab es es' fs Pe). exact F'.
  Qed.

  Theorem node_back : forall x, out_ok x = true -> tv_equiv x (tv_of_anode back (pnode x)).
  Proof.
    induction x using tomlval_ind2; intro Hok; try (cbn [pnode tv_of_anode]; apply val_back; exact Hok).
    - cbn [pnode]. destruct (all_tabs xs) eqn:Ea; [|cbn [tv_of_anode]; apply val_back; exact Hok].
      cbn [tv_of_anode]. constructor. rewrite map_map. apply Forall2_map_r.
      cbn [out_ok] in Hok. apply forallb_Forall in Hok. pose proof (all_tabs_forall xs Ea) as Ht.
      rewrite Forall_forall in *. intros x Hx. destruct (Ht x Hx) as (es & ->).
      apply (H _ Hx (Hok _ Hx)).
    - cbn [pnode tv_of_anode]. apply entries_back.
      destruct (out_ok_tab es Hok) as (_ & _ & Hes). rewrite Forall_forall in *. intros kx Hkx. apply (H kx Hkx (Hes kx Hkx)).
  Qed.

  (* -- the document -- *)
  Lemma printed_values (l : list (bytes * aval)) :
    printed_entries (map (fun kv => (fst kv, AVal (snd kv))) l) = map (fun kv => (fst kv, AVal (snd kv))) l.
  Proof.
    unfold printed_entries.
    assert (E1 : val_entries (map (fun kv : bytes * aval => (fst kv, AVal (snd kv))) l) = map (fun kv => (fst kv, AVal (snd kv))) l).
    { unfold val_entries. induction l as [|kv l IH]; [reflexivity|]. cbn [map flat_map fst snd app]. rewrite IH. reflexivity. }
    assert (E2 : flat_map (fun kv : bytes * anode => map (fun r => (fst kv, r)) (printed_node (snd kv)))
                          (map (fun kv : bytes * aval => (fst kv, AVal (snd kv))) l) = []).
    { clear E1. induction l as [|kv l IH]; [reflexivity|]. cbn [map flat_map fst snd printed_node app]. exact IH. }
    rewrite E1, E2, app_nil_r. reflexivity.
  Qed.

  Theorem root_back r es : out_ok (VTab es) = true ->
    tv_equiv (VTab es)
             (tomlval_of_abs back (printed_entries (abs_tbl (doc_root_tbl fd ml (formatted r) (layout r (VTab es)))))).
  Proof.
    intro Hok. rewrite doc_root_eq. unfold tomlval_of_abs, root_ents.
    destruct (out_ok_tab es Hok) as (_ & _ & Hes).
    destruct (formatted r).
    - rewrite abs_ents. apply entries_back. eapply Forall_impl; [|exact Hes]. intros kx Hx. apply node_back, Hx.
    - rewrite abs_tbl_the.
      assert (E : flat_map (fun kv : bytes * Tree.item => map (fun n => (fst kv, n)) (abs_item (snd kv)))
                           (map (fun kx : bytes * tomlval => (fst kx, IValue (vof (snd kx)))) es)
                  = map (fun kv : bytes * aval => (fst kv, AVal (snd kv))) (map (fun kx => (fst kx, abs_value (vof (snd kx)))) es)).
      { clear Hok Hes. induction es as [|kx es' IH]; [reflexivity|]. cbn [map flat_map fst snd abs_item app]. f_equal. exact IH. }
      rewrite E, printed_values, !map_map. cbn [fst snd tv_of_anode].
      apply (te_tab es es _ (Permutation_refl es)). apply Forall2_map_r.
      eapply Forall_impl; [|exact Hes]. intros kx Hx. split; [reflexivity|]. cbn [snd]. apply val_back, Hx.
  Qed.
End Back.
