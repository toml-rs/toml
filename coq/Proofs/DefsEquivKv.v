(* Proofs/DefsEquivKv.v — C09: spec-side facts about key/value insertion, about what a run
   leaves in the tree (its leaves are values of the statements) and about the two U1 policies
   (strict = Undecided, non-strict = what the pinned code does). *)
From TV Require Import Base.Prelude Spec.Defs Proofs.DefsEquivSpec.

Section KvAlg.
Context {V : Type}.
Notation stree := (stree V).
Notation node := (node V).

Lemma insert_kv_leaf s k (v : V) t :
  insert_kv s [k] v t = match sget t k with None => ROk (spush t k (NVal v)) | Some _ => RInvalid end.
Proof. reflexivity. Qed.

Lemma insert_kv_step s k k2 p'' (v : V) t :
  insert_kv s (k :: k2 :: p'') v t =
  match sget t k with
  | None => c <~ insert_kv s (k2 :: p'') v [] ;; ROk (spush t k (NTab KDotted c))
  | Some (NTab KDotted c) => c' <~ insert_kv s (k2 :: p'') v c ;; ROk (sset t k (NTab KDotted c'))
  | Some (NTab KSuper c) =>
    if s then RUndecided
    else match p'' with
         | [] => RInvalid
         | _ => c' <~ insert_kv s (k2 :: p'') v c ;; ROk (sset t k (NTab KSuper c'))
         end
  | Some _ => RInvalid
  end.
Proof. reflexivity. Qed.

(* the same, for a path given as prefix ++ [last] (the model's shape) *)
Lemma insert_kv_snoc s k q l (v : V) t :
  insert_kv s (k :: q ++ [l]) v t =
  match sget t k with
  | None => c <~ insert_kv s (q ++ [l]) v [] ;; ROk (spush t k (NTab KDotted c))
  | Some (NTab KDotted c) => c' <~ insert_kv s (q ++ [l]) v c ;; ROk (sset t k (NTab KDotted c'))
  | Some (NTab KSuper c) =>
    if s then RUndecided
    else match q with
         | [] => RInvalid
         | _ => c' <~ insert_kv s (q ++ [l]) v c ;; ROk (sset t k (NTab KSuper c'))
         end
  | Some _ => RInvalid
  end.
Proof. destruct q as [|a [|b q']]; reflexivity. Qed.

(* an invariant of the walks that admits v as a new leaf survives the insertion of v *)
Lemma insert_kv_inv (J : stree -> Prop) s (v : V) p :
  walk_inv J -> (forall t k, J t -> sget t k = None -> J (spush t k (NVal v))) ->
  forall t t', J t -> insert_kv s p v t = ROk t' -> J t'.
Proof.
  intros ((J0 & Jt & _) & Jpush & Jtab & _) Jleaf.
  induction p as [|k p' IH]; intros t t' Ht H; [discriminate|].
  destruct p' as [|k2 p''].
  - rewrite insert_kv_leaf in H. destruct (sget t k) eqn:E; [discriminate|]. inversion H; subst.
    apply Jleaf; assumption.
  - rewrite insert_kv_step in H. destruct (sget t k) as [[v0|[| |] c|es]|] eqn:E; try discriminate.
    + destruct s; [discriminate|]. destruct p''; [discriminate|].
      destruct (insert_kv false _ v c) as [c'| |] eqn:E1; cbn [rbind] in H; inversion H; subst.
      eapply Jtab; [exact Ht | exact E | eapply IH; [eapply Jt; eassumption | exact E1]].
    + destruct (insert_kv s _ v c) as [c'| |] eqn:E1; cbn [rbind] in H; inversion H; subst.
      eapply Jtab; [exact Ht | exact E | eapply IH; [eapply Jt; eassumption | exact E1]].
    + destruct (insert_kv s _ v []) as [c'| |] eqn:E1; cbn [rbind] in H; inversion H; subst.
      apply Jpush; [exact Ht | exact E | eapply IH; [exact J0 | exact E1]].
Qed.

Lemma insert_kv_swf s (v : V) p : forall t t',
  swf_tree t = true -> insert_kv s p v t = ROk t' -> swf_tree t' = true.
Proof.
  apply (insert_kv_inv (fun t => swf_tree t = true)); [exact walk_inv_swf|].
  intros t k Ht E. apply swf_spush; [exact Ht | reflexivity | exact E].
Qed.

(* ---- the leaves of the tree are values of the statements -------------------------------- *)
Section Leaves.
Variable P : V -> Prop.

Definition stmt_leaf (st : stmt V) : Prop := match st with SKeyVal _ v => P v | _ => True end.

Lemma spec_step_leaves s (S S' : sstate V) st :
  stmt_leaf st -> tleaves P (fst S) -> spec_step s S st = ROk S' -> tleaves P (fst S').
Proof.
  destruct S as [t cur]. destruct st as [p|p|p v]; cbn [spec_step stmt_leaf fst]; intros Hv Ht H.
  - destruct (unsnoc p) as [[pre k]|]; [|discriminate].
    destruct (at_path pre (def_table k) t) as [t'| |] eqn:E; inversion H; subst.
    exact (at_path_inv _ _ _ _ _ (walk_inv_leaves P) Ht (def_table_leaves P k) E).
  - destruct (unsnoc p) as [[pre k]|]; [|discriminate].
    destruct (at_path pre (def_elem k) t) as [t'| |] eqn:E; inversion H; subst.
    exact (at_path_inv _ _ _ _ _ (walk_inv_leaves P) Ht (def_elem_leaves P k) E).
  - destruct (at_path cur (insert_kv s p v) t) as [t'| |] eqn:E; inversion H; subst.
    refine (at_path_inv _ _ _ _ _ (walk_inv_leaves P) Ht _ E).
    apply insert_kv_inv; [exact (walk_inv_leaves P)|].
    intros t0 k Ht0 _. apply tleaves_spush; [exact Ht0 | constructor; exact Hv].
Qed.

Lemma spec_fold_leaves s l : forall S S' : sstate V,
  Forall stmt_leaf l -> tleaves P (fst S) -> spec_fold s S l = ROk S' -> tleaves P (fst S').
Proof.
  induction l as [|st tl IH]; intros S S' Hl HS H; cbn [spec_fold] in H.
  - inversion H; subst. exact HS.
  - inversion Hl; subst. destruct (spec_step s S st) as [S1| |] eqn:E; [|discriminate..].
    eapply IH; [eassumption | eapply spec_step_leaves; eassumption | exact H].
Qed.

Lemma run_leaves s l t : Forall stmt_leaf l -> run s l = Valid t -> tleaves P t.
Proof.
  unfold run. intros Hl H. destruct (spec_fold s sstate0 l) as [[t' c]| |] eqn:E; inversion H; subst.
  exact (spec_fold_leaves s l sstate0 _ Hl (Forall_nil _) E).
Qed.

End Leaves.

(* ---- the two policies ------------------------------------------------------------------- *)
Lemma insert_kv_code_decides (v : V) p : forall t, insert_kv false p v t <> RUndecided.
Proof.
  induction p as [|k p' IH]; intros t; [discriminate|].
  destruct p' as [|k2 p''].
  - rewrite insert_kv_leaf. destruct (sget t k); discriminate.
  - rewrite insert_kv_step. destruct (sget t k) as [[v0|[| |] c|es]|]; try discriminate.
    + destruct p''; [discriminate|]. specialize (IH c).
      destruct (insert_kv false _ v c); cbn [rbind]; [discriminate | discriminate | exact IH].
    + specialize (IH c). destruct (insert_kv false _ v c); cbn [rbind]; [discriminate | discriminate | exact IH].
    + specialize (IH []). destruct (insert_kv false _ v []); cbn [rbind]; [discriminate | discriminate | exact IH].
Qed.

Lemma insert_kv_strict_code (v : V) p : forall t,
  insert_kv true p v t <> RUndecided -> insert_kv false p v t = insert_kv true p v t.
Proof.
  induction p as [|k p' IH]; intros t H; [reflexivity|].
  destruct p' as [|k2 p''].
  - reflexivity.
  - rewrite !insert_kv_step in *. destruct (sget t k) as [[v0|[| |] c|es]|]; try reflexivity.
    + exfalso. apply H. reflexivity.
    + rewrite IH; [reflexivity|]. intro E. apply H. rewrite E. reflexivity.
    + rewrite IH; [reflexivity|]. intro E. apply H. rewrite E. reflexivity.
Qed.

Lemma at_path_decides p (f : stree -> res stree) :
  (forall t, f t <> RUndecided) -> forall t, at_path p f t <> RUndecided.
Proof.
  intro Hf. induction p as [|k p' IH]; intro t; [apply Hf|]. rewrite at_path_cons.
  destruct (enter k t) as [[c w]|]; [|discriminate].
  specialize (IH c). destruct (at_path p' f c); cbn [rbind]; [discriminate | discriminate | exact IH].
Qed.

Lemma at_path_agree p (f f' : stree -> res stree) :
  (forall t, f t <> RUndecided -> f' t = f t) ->
  forall t, at_path p f t <> RUndecided -> at_path p f' t = at_path p f t.
Proof.
  intro Hf. induction p as [|k p' IH]; intros t H; [apply Hf; exact H|]. rewrite !at_path_cons in *.
  destruct (enter k t) as [[c w]|]; [|reflexivity].
  rewrite IH; [reflexivity|]. intro E. apply H. rewrite E. reflexivity.
Qed.

Lemma def_table_decides k (t : stree) : def_table k t <> RUndecided.
Proof. unfold def_table. destruct (sget t k) as [[v0|[| |] c|es]|]; discriminate. Qed.
Lemma def_elem_decides k (t : stree) : def_elem k t <> RUndecided.
Proof. unfold def_elem. destruct (sget t k) as [[v0|kd c|es]|]; discriminate. Qed.

Lemma spec_step_code_decides (s : sstate V) st : spec_step false s st <> RUndecided.
Proof.
  destruct s as [t cur]. destruct st as [p|p|p v]; cbn [spec_step].
  - destruct (unsnoc p) as [[pre k]|]; [|discriminate].
    pose proof (at_path_decides pre (def_table k) (def_table_decides k) t) as H.
    destruct (at_path pre (def_table k) t); cbn [rbind]; [discriminate | discriminate | exfalso; apply H; reflexivity].
  - destruct (unsnoc p) as [[pre k]|]; [|discriminate].
    pose proof (at_path_decides pre (def_elem k) (def_elem_decides k) t) as H.
    destruct (at_path pre (def_elem k) t); cbn [rbind]; [discriminate | discriminate | exfalso; apply H; reflexivity].
  - pose proof (at_path_decides cur (insert_kv false p v) (insert_kv_code_decides v p) t) as H.
    destruct (at_path cur (insert_kv false p v) t); cbn [rbind]; [discriminate | discriminate | exfalso; apply H; reflexivity].
Qed.

Lemma spec_step_strict_code (s : sstate V) st :
  spec_step true s st <> RUndecided -> spec_step false s st = spec_step true s st.
Proof.
  destruct s as [t cur]. destruct st as [p|p|p v]; cbn [spec_step]; try reflexivity.
  intro H. rewrite (at_path_agree cur (insert_kv true p v) (insert_kv false p v)); [reflexivity| |].
  - intros t0. apply insert_kv_strict_code.
  - intro E. apply H. rewrite E. reflexivity.
Qed.

Lemma spec_fold_code_decides l : forall (s : sstate V), spec_fold false s l <> RUndecided.
Proof.
  induction l as [|st tl IH]; intro s; cbn [spec_fold]; [discriminate|].
  pose proof (spec_step_code_decides s st) as H.
  destruct (spec_step false s st) as [s'| |]; cbn [rbind]; [apply IH | discriminate | exact H].
Qed.

Lemma spec_fold_strict_code l : forall (s : sstate V),
  spec_fold true s l <> RUndecided -> spec_fold false s l = spec_fold true s l.
Proof.
  induction l as [|st tl IH]; intros s H; cbn [spec_fold] in *; [reflexivity|].
  rewrite spec_step_strict_code.
  - destruct (spec_step true s st) as [s'| |]; cbn [rbind] in *; [apply IH; exact H | reflexivity | reflexivity].
  - intro E. apply H. rewrite E. reflexivity.
Qed.

Lemma code_run_decides (l : list (stmt V)) : code_run l <> Undecided.
Proof.
  unfold code_run, run. pose proof (spec_fold_code_decides l sstate0) as H.
  destruct (spec_fold false sstate0 l) as [[t c]| |]; [discriminate | discriminate | congruence].
Qed.

Lemma spec_run_code_run (l : list (stmt V)) : spec_run l <> Undecided -> code_run l = spec_run l.
Proof.
  unfold spec_run, code_run, run. intro H. rewrite spec_fold_strict_code; [reflexivity|].
  intro E. apply H. rewrite E. reflexivity.
Qed.

End KvAlg.
