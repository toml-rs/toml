(* Proofs/LexEquivUtf8.v — (1) the reading of `non-ascii` used by Spec/Abnf.v and Spec/Lex.v is the
   ABNF's: a byte string is well-formed UTF-8 exactly when it is a sequence of ASCII bytes and
   encodings of scalar values in %x80-D7FF / %xE000-10FFFF (`non_ascii_bytes_ok`);
   (2) every decoded string value is well-formed UTF-8 (the Rust `String` invariant). *)
From TV Require Import Base.Prelude Base.Utf8 Spec.Abnf Spec.Lex.
From TV Require Import Model.Strings.
From TV Require Import Proofs.LexEquivBase
  Proofs.LexEquivStrings Proofs.LexEquivMlLit Proofs.LexEquivMlBasic.
Require Import Lia ZifyBool ZifyN ZifyNat.
Ltac Zify.zify_post_hook ::= Z.div_mod_to_equations.

Local Open Scope N_scope.

(* ---- scalar values in base 64: a continuation byte carries one digit ------------------------------------------------ *)
Lemma digit64 q r : r < 64 -> (q * 64 + r) / 64 = q /\ (q * 64 + r) mod 64 = r.
Proof.
  intro H. split; symmetry; [apply (N.div_unique _ 64 q r)|apply (N.mod_unique _ 64 q r)]; lia.
Qed.

Lemma digits64 n : exists q r, r < 64 /\ n = q * 64 + r.
Proof.
  exists (n / 64), (n mod 64). split; [apply N.mod_lt; discriminate|].
  rewrite N.mul_comm. apply N.div_mod. discriminate.
Qed.

Lemma utf8_encode2 h l : l < 64 -> 128 <= h * 64 + l < 2048 ->
  utf8_encode (h * 64 + l) = [n2b (192 + h); n2b (128 + l)].
Proof.
  intros Hl Hn. destruct (digit64 h l Hl) as [E1 E2]. unfold utf8_encode. rewrite E1, E2.
  replace (h * 64 + l <? 128) with false by lia. replace (h * 64 + l <? 2048) with true by lia. reflexivity.
Qed.

Lemma utf8_encode3 h m l : m < 64 -> l < 64 -> 2048 <= (h * 64 + m) * 64 + l < 65536 ->
  utf8_encode ((h * 64 + m) * 64 + l) = [n2b (224 + h); n2b (128 + m); n2b (128 + l)].
Proof.
  intros Hm Hl Hn. destruct (digit64 (h * 64 + m) l Hl) as [E1 E2]. destruct (digit64 h m Hm) as [E3 E4].
  unfold utf8_encode. change 4096 with (64 * 64). rewrite <- N.div_div by discriminate.
  rewrite E1, E2, E3, E4. generalize dependent ((h * 64 + m) * 64 + l). intros n Hn _ _.
  replace (n <? 128) with false by lia. replace (n <? 2048) with false by lia.
  replace (n <? 65536) with true by lia. reflexivity.
Qed.

Lemma utf8_encode4 h m k l : m < 64 -> k < 64 -> l < 64 -> 65536 <= ((h * 64 + m) * 64 + k) * 64 + l ->
  utf8_encode (((h * 64 + m) * 64 + k) * 64 + l) = [n2b (240 + h); n2b (128 + m); n2b (128 + k); n2b (128 + l)].
Proof.
  intros Hm Hk Hl Hn. destruct (digit64 ((h * 64 + m) * 64 + k) l Hl) as [E1 E2].
  destruct (digit64 (h * 64 + m) k Hk) as [E3 E4]. destruct (digit64 h m Hm) as [E5 E6].
  unfold utf8_encode. change 262144 with (64 * 64 * 64). change 4096 with (64 * 64).
  rewrite <- !N.div_div by discriminate.
  rewrite E1, E2, E3, E4, E5, E6. generalize dependent (((h * 64 + m) * 64 + k) * 64 + l). intros n Hn _ _.
  replace (n <? 128) with false by lia. replace (n <? 2048) with false by lia.
  replace (n <? 65536) with false by lia. reflexivity.
Qed.

Lemma second3_bounds b0 b1 : second3 b0 b1 = true <->
  128 <= b2n b1 <= 191 /\ (b2n b0 = 224 -> 160 <= b2n b1) /\ (b2n b0 = 237 -> b2n b1 <= 159).
Proof. unfold second3, inr, is_cont. destruct (b2n b0 =? 224) eqn:Q1; [lia|]. destruct (b2n b0 =? 237) eqn:Q2; lia. Qed.
Lemma second4_bounds b0 b1 : second4 b0 b1 = true <->
  128 <= b2n b1 <= 191 /\ (b2n b0 = 240 -> 144 <= b2n b1) /\ (b2n b0 = 244 -> b2n b1 <= 143).
Proof. unfold second4, inr, is_cont. destruct (b2n b0 =? 240) eqn:Q1; [lia|]. destruct (b2n b0 =? 244) eqn:Q2; lia. Qed.

(* ---- the multi-byte characters are the encodings of the scalar values from 0x80 -------------------------------------- *)
Lemma cont_n2b l : l < 64 -> is_cont (n2b (128 + l)) = true.
Proof. intro H. unfold is_cont. rewrite b2n_n2b by lia. lia. Qed.

Lemma inr_n2b lo hi n : lo <= n <= hi -> hi < 256 -> inr lo hi (n2b n) = true.
Proof. intros H Hhi. unfold inr. rewrite b2n_n2b by lia. lia. Qed.

(* n is cut into its base-64 digits first, so that every bound left for lia is linear *)
Lemma utf8_encode_multi n : 128 <= n -> is_scalar n = true -> utf8_multi (utf8_encode n).
Proof.
  unfold is_scalar. intros Hn Hs.
  destruct (digits64 n) as (q & l & Hl & ->). destruct (N.ltb_spec (q * 64 + l) 2048) as [L2|L2].
  { rewrite utf8_encode2 by lia. apply um2; [apply inr_n2b; lia|apply cont_n2b; exact Hl]. }
  destruct (digits64 q) as (p & k & Hk & ->). destruct (N.ltb_spec ((p * 64 + k) * 64 + l) 65536) as [L3|L3].
  { rewrite utf8_encode3 by lia. apply um3; [apply inr_n2b; lia| |apply cont_n2b; exact Hl].
    apply second3_bounds. rewrite !b2n_n2b by lia. lia. }
  destruct (digits64 p) as (h & m & Hm & ->). rewrite utf8_encode4 by lia.
  apply um4; [apply inr_n2b; lia| |apply cont_n2b; exact Hk|apply cont_n2b; exact Hl].
  apply second4_bounds. rewrite !b2n_n2b by lia. lia.
Qed.

(* a byte at or above a base value, as base + payload *)
Lemma byte_split base b : base <= b2n b -> exists h, b = n2b (base + h) /\ b2n b = base + h.
Proof.
  intro H. exists (b2n b - base). replace (base + (b2n b - base)) with (b2n b) by lia.
  split; [symmetry; apply n2b_b2n|reflexivity].
Qed.

Lemma utf8_multi_scalar ch : utf8_multi ch -> exists n, 128 <= n /\ is_scalar n = true /\ utf8_encode n = ch.
Proof.
  unfold is_scalar.
  intros [b0 b1 H0 H1|b0 b1 b2 H0 H1 H2|b0 b1 b2 b3 H0 H1 H2 H3];
    try apply second3_bounds in H1; try apply second4_bounds in H1; unfold inr, is_cont in *.
  - destruct (byte_split 192 b0) as (h & -> & E0); [lia|]. destruct (byte_split 128 b1) as (l & -> & E1); [lia|].
    rewrite E0 in *. rewrite E1 in *. clear E0 E1.
    exists (h * 64 + l). rewrite utf8_encode2 by lia. split; [lia|]. split; [lia|reflexivity].
  - destruct (byte_split 224 b0) as (h & -> & E0); [lia|]. destruct (byte_split 128 b1) as (m & -> & E1); [lia|].
    destruct (byte_split 128 b2) as (l & -> & E2); [lia|].
    rewrite E0 in *. rewrite E1 in *. rewrite E2 in *. clear E0 E1 E2.
    exists ((h * 64 + m) * 64 + l). rewrite utf8_encode3 by lia. split; [lia|]. split; [lia|reflexivity].
  - destruct (byte_split 240 b0) as (h & -> & E0); [lia|]. destruct (byte_split 128 b1) as (m & -> & E1); [lia|].
    destruct (byte_split 128 b2) as (k & -> & E2); [lia|]. destruct (byte_split 128 b3) as (l & -> & E3); [lia|].
    rewrite E0 in *. rewrite E1 in *. rewrite E2 in *. rewrite E3 in *. clear E0 E1 E2 E3.
    exists (((h * 64 + m) * 64 + k) * 64 + l). rewrite utf8_encode4 by lia. split; [lia|]. split; [lia|reflexivity].
Qed.

Lemma utf8_encode_valid0 n : is_scalar n = true -> utf8_valid_b (utf8_encode n) = true.
Proof.
  intro Hs. destruct (N.ltb_spec n 128) as [L|L].
  - unfold utf8_encode. replace (n <? 128) with true by lia.
    apply utf8_cons_ascii. unfold ascii. rewrite b2n_n2b by lia. lia.
  - rewrite <- (app_nil_r (utf8_encode n)). apply utf8_multi_app. apply utf8_encode_multi; assumption.
Qed.

(* ---- the reading of non-ascii -------------------------------------------------------------------------------------- *)
(* a sequence of ASCII bytes and of UTF-8 encodings of scalar values in %x80-D7FF / %xE000-10FFFF *)
Inductive utf8_chars : bytes -> Prop :=
| uc_nil : utf8_chars []
| uc_ascii b s : ascii b = true -> utf8_chars s -> utf8_chars (b :: s)
| uc_non_ascii n s : 128 <= n -> is_scalar n = true -> utf8_chars s -> utf8_chars (utf8_encode n ++ s).

Lemma utf8_chars_valid s : utf8_chars s -> utf8_valid_b s = true.
Proof.
  induction 1 as [|b s Hb _ IH|n s Hn Hs _ IH]; [reflexivity| |].
  - rewrite utf8_cons_ascii by exact Hb. exact IH.
  - rewrite utf8_multi_app by (apply utf8_encode_multi; assumption). exact IH.
Qed.

Theorem non_ascii_bytes_ok s : utf8_valid_b s = true <-> utf8_chars s.
Proof.
  split; [|apply utf8_chars_valid]. revert s. apply utf8_valid_ind.
  - apply uc_nil.
  - intros b s Hb _ IH. apply uc_ascii; assumption.
  - intros ch s Hch _ IH. destruct (utf8_multi_scalar ch Hch) as (n & Hn & Hs & <-). apply uc_non_ascii; assumption.
Qed.

(* on well-formed text, "every byte is in class c, where c contains all bytes >= 0x80" says: every
   character is an ASCII character of c or a non-ASCII scalar value -- the ABNF's
   `c-ascii / non-ascii` *)
Inductive chars_of (c : byte -> bool) : bytes -> Prop :=
| co_nil : chars_of c []
| co_ascii b s : ascii b = true -> c b = true -> chars_of c s -> chars_of c (b :: s)
| co_non_ascii n s : 128 <= n -> is_scalar n = true -> chars_of c s -> chars_of c (utf8_encode n ++ s).

Theorem class_chars_ok c s : (forall b, non_ascii b = true -> c b = true) ->
  (utf8_valid_b s = true /\ all c s) <-> chars_of c s.
Proof.
  intro Hc. split.
  - intros [V Ha]. apply non_ascii_bytes_ok in V. induction V as [|b s Hb _ IH|n s Hn Hs _ IH].
    + apply co_nil.
    + unfold all in Ha. cbn [forallb] in Ha. apply andb_true_iff in Ha as [Hcb Ha].
      apply co_ascii; [exact Hb|exact Hcb|apply IH; exact Ha].
    + unfold all in Ha. rewrite forallb_app in Ha. apply andb_true_iff in Ha as [_ Ha].
      apply co_non_ascii; [exact Hn|exact Hs|apply IH; exact Ha].
  - induction 1 as [|b s Hb Hcb _ [V Ha]|n s Hn Hs _ [V Ha]].
    + split; reflexivity.
    + split; [rewrite utf8_cons_ascii by exact Hb; exact V|]. unfold all in *. cbn [forallb]. rewrite Hcb. exact Ha.
    + pose proof (utf8_encode_multi n Hn Hs) as Hm.
      split; [rewrite utf8_multi_app by exact Hm; exact V|]. unfold all in *. rewrite forallb_app, Ha.
      rewrite (forallb_impl non_ascii c _ Hc (utf8_multi_non_ascii _ Hm)). reflexivity.
Qed.

(* ---- every decoded string is well-formed UTF-8 ---------------------------------------------------------------------- *)
Lemma escaped_value_valid e s : escaped_tok e s -> utf8_valid_b s = true.
Proof.
  intros [b n Hb | b k h Hb Hl Hh Hsc]; apply utf8_encode_valid0; [apply (escape_simple_facts b n Hb)|exact Hsc].
Qed.

Lemma chunked_value_valid body v : chunked body v -> utf8_valid_b body = true -> utf8_valid_b v = true.
Proof.
  induction 1 as [|a t v Hne Ha Hs _ IH|e s t v He _ IH]; intro V; [reflexivity| |].
  - destruct (utf8_cut a t (stops_ascii_head _ _ basic_unescaped_nonascii Hs) V) as [Va Vt].
    apply utf8_join; [exact Va|apply IH; exact Vt].
  - destruct (escaped_ascii e s He) as (Ae & _). rewrite (utf8_app_ascii e t Ae) in V.
    apply utf8_join; [apply (escaped_value_valid e s He)|apply IH; exact V].
Qed.

Theorem basic_string_value_valid t v : basic_string_tok t v -> utf8_valid_b v = true.
Proof.
  intros (V & body & -> & St). cbn [app] in V. rewrite utf8_cons_ascii in V by reflexivity.
  destruct (utf8_split body x22 [] eq_refl V) as [Vb _].
  apply (chunked_value_valid body v (star_chunked _ _ St) Vb).
Qed.

Theorem literal_string_value_valid t v : literal_string_tok t v -> utf8_valid_b v = true.
Proof.
  intros (V & body & -> & St). apply star_one_inv in St as [-> _].
  cbn [app] in V. rewrite utf8_cons_ascii in V by reflexivity.
  apply (utf8_split body x27 [] eq_refl V).
Qed.

Lemma replace_crlf_high ch s : forallb non_ascii ch = true -> replace_crlf (ch ++ s) = ch ++ replace_crlf s.
Proof.
  induction ch as [|b ch IH]; [reflexivity|]. cbn [forallb app]. intro H. apply andb_true_iff in H as [Hb Hch].
  rewrite replace_crlf_cons by (revert Hb; cls; lia). rewrite (IH Hch). reflexivity.
Qed.

Lemma replace_crlf_2 a b r :
  replace_crlf (a :: b :: r)
  = if byte_eqb a x0d && byte_eqb b x0a then x0a :: replace_crlf r else a :: replace_crlf (b :: r).
Proof. reflexivity. Qed.

Lemma replace_crlf_valid s : utf8_valid_b s = true -> utf8_valid_b (replace_crlf s) = true.
Proof.
  revert s. apply utf8_valid_ind.
  - reflexivity.
  - intros b s Hb _ IH. destruct s as [|c r]; [cbn [replace_crlf]; rewrite utf8_cons_ascii by exact Hb; reflexivity|].
    rewrite replace_crlf_2. destruct (byte_eqb b x0d && byte_eqb c x0a) eqn:Q.
    + (* CR LF becomes LF: what the induction gives for LF :: r is the goal *)
      apply andb_true_iff in Q as [_ Qc]. apply byte_eqb_eq in Qc. subst c.
      rewrite replace_crlf_cons in IH by reflexivity. exact IH.
    + rewrite utf8_cons_ascii by exact Hb. exact IH.
  - intros ch s Hch _ IH. rewrite replace_crlf_high by (apply utf8_multi_non_ascii; exact Hch).
    rewrite utf8_multi_app by exact Hch. exact IH.
Qed.

Theorem ml_literal_string_value_valid t v : ml_literal_string_tok t v -> utf8_valid_b v = true.
Proof.
  intros (V & nl & body & -> & Hnl & Hb).
  apply (ml_frame_valid x27 nl body eq_refl (first_newline_ascii nl body Hnl)) in V as Vb.
  rewrite (mll_body_value body v Hb). apply replace_crlf_valid. exact Vb.
Qed.

Lemma mchunked_value_valid t v : mchunked t v -> utf8_valid_b t = true -> utf8_valid_b v = true.
Proof.
  induction 1 as [|a t v Hne Ha Hs _ IH|e s t v He _ IH|nl t v Hnl _ IH|es t v Hes N1 N2 _ IH]; intro V.
  - reflexivity.
  - destruct (utf8_cut a t (stops_ascii_head _ _ mlb_unescaped_nonascii Hs) V) as [Va Vt].
    apply utf8_join; [exact Va|apply IH; exact Vt].
  - destruct (escaped_ascii e s He) as (Ae & _). rewrite (utf8_app_ascii e t Ae) in V.
    apply utf8_join; [apply (escaped_value_valid e s He)|apply IH; exact V].
  - rewrite (utf8_app_ascii nl t (newline_tok_ascii nl Hnl)) in V.
    rewrite utf8_cons_ascii by reflexivity. apply IH; exact V.
  - rewrite (utf8_app_ascii es t (trims_ascii es Hes)) in V. apply IH; exact V.
Qed.

Lemma qgroups_value_valid t w : star qgroup t w -> utf8_valid_b t = true -> utf8_valid_b w = true.
Proof.
  induction 1 as [|t1 v1 t2 v2 (q & vq & c & vc & -> & -> & Hq & [_ Hc]) St IH]; intro V; [reflexivity|].
  apply mlb_quotes_cases in Hq as [Hq ->].
  assert (Aq : forallb ascii q = true) by (destruct Hq as [-> | ->]; reflexivity).
  rewrite <- app_assoc in V. rewrite (utf8_app_ascii q _ Aq) in V.
  pose proof (star_qgroup_ascii_head t2 v2 [] St I) as Ah. rewrite app_nil_r in Ah.
  destruct (utf8_cut c t2 Ah V) as [Vc V2].
  rewrite <- app_assoc. rewrite (utf8_app_ascii q _ Aq).
  apply utf8_join; [apply (mchunked_value_valid c vc (contents_mchunked _ _ Hc) Vc)|apply IH; exact V2].
Qed.

Theorem ml_basic_string_value_valid t v : ml_basic_string_tok t v -> utf8_valid_b v = true.
Proof.
  intros (V & nl & body & -> & Hnl & Hb).
  apply (ml_frame_valid x22 nl body eq_refl (first_newline_ascii nl body Hnl)) in V as Vb. clear V.
  destruct Hb as (t1 & v1 & t23 & v23 & -> & -> & A & (t2 & v2 & t3 & v3 & -> & -> & B & C)).
  pose proof (maybe_mlb_quotes_ascii t3 v3 C) as A3. apply maybe_mlb_quotes_cases in C as [C ->].
  assert (Ah3 : ascii_head t3) by (destruct C as [-> | [-> | ->]]; exact I || reflexivity).
  destruct (utf8_cut t1 _ (star_qgroup_ascii_head t2 v2 t3 B Ah3) Vb) as [V1 V23].
  destruct (utf8_cut t2 _ Ah3 V23) as [V2 _].
  apply utf8_join; [apply (mchunked_value_valid t1 v1 (contents_mchunked _ _ A) V1)|].
  apply utf8_join; [apply (qgroups_value_valid t2 v2 B V2)|apply utf8_ascii; exact A3].
Qed.

Theorem string_value_valid t v : string_tok t v -> utf8_valid_b v = true.
Proof.
  intros [H | [H | [H | H]]];
    [apply (ml_basic_string_value_valid t v H)|apply (basic_string_value_valid t v H)
    |apply (ml_literal_string_value_valid t v H)|apply (literal_string_value_valid t v H)].
Qed.
