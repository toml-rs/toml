(* Proofs/DeLocSpan.v — with source text (every node and key of the tree has a span): the span of a
   deserialization error (Model/DeLoc.v) is the span of the node — or key — the error was raised at,
   through any nesting of structs, maps, sequences, tuples, options, newtypes and enum variants.
   This includes the Date / Time kind check, which is raised outside the wrappers of its own node: it
   gets the node's span from the access that handed the node out (next_value_seed, next_element_seed,
   newtype_variant_seed, deserialize_option / _newtype_struct); only when the date-time is the very
   node de_loc was called on is there no such access.
   Not claimed for KUnmodelled (paths the model does not follow). *)
From TV Require Import Base.Prelude Model.SerdeSpanned.
From TV Require Import Model.DeLoc Proofs.SpannedRTBase Proofs.DeLocBase Proofs.DeLocWalk.

Definition claimed (k : ekind) : Prop := k <> KUnmodelled.
Definition located (s : stree) (e : lerr) : Prop :=
  exists sp, e_span e = Some sp /\ locate s (e_at e) (e_onkey e) = Some (Some sp).
Definition linv (s : stree) (e : lerr) : Prop :=
  (e_onkey e = true -> e_at e <> []) /\ (claimed (e_kind e) -> located s e).
(* inside a node, before its wrapper: located already, or still without span and raised here *)
Definition binv (s : stree) (e : lerr) : Prop := linv s e \/ fresh_nospan e.
(* what T::deserialize(node) returns: located, or the kind check of a Date / Time at this very node *)
Definition ninv (s : stree) (e : lerr) : Prop :=
  linv s e \/ (fresh_nospan e /\ (e_kind e = KDtKind \/ e_kind e = KUnmodelled)).

Lemma L_wrap {A} s (r : lres A) :
  has_span (span_of s) = true -> errs (binv s) r -> errs (linv s) (wrap (span_of s) r).
Proof.
  intros Hs H. apply has_span_some in Hs as [sp Hs]. unfold wrap. eapply errs_map_err; [exact H|].
  intros e [[O L]|[(K & P & O) N]].
  - destruct (e_span e) eqn:E; [split; assumption|].
    split; [exact O|]. intro C. destruct (L C) as (sp' & E' & _). cbn in E'. congruence.
  - rewrite N. unfold linv, located, set_span. cbn [e_onkey e_at e_kind e_span]. rewrite P, O.
    split; [discriminate|]. intros _. exists sp. cbn [locate]. rewrite Hs. split; reflexivity.
Qed.

Lemma L_raise_at_here {A} s k : has_span (span_of s) = true -> errs (linv s) (@raise_at A k (span_of s)).
Proof.
  intro Hs. apply has_span_some in Hs as [sp Hs]. unfold raise_at. cbn [errs]. unfold linv, located. cbn [e_kind e_span e_at e_onkey locate].
  split; [discriminate|]. intros _. exists sp. rewrite Hs. split; reflexivity.
Qed.

(* one step up: st leads from the node s to its child s', so the path of an error of s' grows by st *)
Definition leads (s : stree) (st : step) (s' : stree) : Prop :=
  forall p o, (o = true -> p <> []) -> locate s (st :: p) o = locate s' p o.

Lemma leads_entry sp es i e st : st = SKey i (en_key e) \/ st = SPos i (en_key e) -> nth_error es i = Some e ->
  leads (NTab sp es) st (en_val e).
Proof.
  intros Hst Hn p o Ho. unfold entry in *. destruct Hst as [-> | ->]; cbn [locate]; rewrite Hn, bytes_eqb_refl;
    (destruct p as [|st' p']; [|reflexivity]); (destruct o; [exfalso; apply Ho; reflexivity|reflexivity]).
Qed.
Lemma leads_var sp e : leads (NTab sp [e]) (SVar (en_key e)) (en_val e).
Proof.
  intros p o Ho. cbn [locate]. rewrite bytes_eqb_refl. destruct p as [|st p']; [|reflexivity].
  destruct o; [exfalso; apply Ho; reflexivity|reflexivity].
Qed.
Lemma leads_idx sp xs i x : nth_error xs i = Some x -> leads (NArr sp xs) (SIdx i) x.
Proof. intros Hn p o _. cbn [locate]. rewrite Hn. reflexivity. Qed.

Lemma L_under {A} s st s' (r : lres A) : leads s st s' -> errs (linv s') r -> errs (linv s) (under st r).
Proof.
  intros Hl H. destruct r as [a|err]; [exact I|]. destruct H as [O L]. unfold under. cbn [map_err errs].
  unfold linv, located in *. cbn [e_kind e_span e_at e_onkey].
  split; [discriminate|]. intro C. destruct (L C) as (sp' & E & Loc). exists sp'. split; [exact E|].
  rewrite <- Loc. exact (Hl _ _ O).
Qed.

Lemma L_addkey {A} s k (r : lres A) : errs (linv s) r -> errs (linv s) (addkey k r).
Proof. destruct r; [intros _; exact I|intro H; exact H]. Qed.

(* next_value_seed on the i-th entry *)
Lemma L_value_of_entry {A} sp es i e (r : lres A) :
  nth_error es i = Some e -> has_span (span_of (en_val e)) = true ->
  errs (binv (en_val e)) r -> errs (linv (NTab sp es)) (value_of_entry i e r).
Proof.
  intros Hn Hs H. unfold value_of_entry. destruct (has_span_some _ Hs) as [vsp Ev]. rewrite Ev, <- Ev.
  apply (L_under _ _ (en_val e)); [apply (leads_entry sp es i); [left; reflexivity|exact Hn]|]. apply L_addkey. apply L_wrap; assumption.
Qed.

(* next_key_seed on the i-th entry *)
Lemma L_key_of_entry {A} sp es i e (r : lres A) :
  nth_error es i = Some e -> has_span (en_kspan e) = true ->
  errs fresh_nospan r -> errs (linv (NTab sp es)) (key_of_entry i e r).
Proof.
  intros Hn Hk H. destruct r as [a|err]; [exact I|]. destruct H as [(K & P & O) N].
  apply has_span_some in Hk as [ksp Hk].
  unfold key_of_entry, under, on_key, wrap. cbn [map_err errs]. rewrite N.
  unfold linv, located, set_span. cbn [e_kind e_span e_at e_onkey]. rewrite P, Hk.
  split; [discriminate|]. intros _. exists ksp. split; [reflexivity|].
  cbn [locate]. unfold entry in *. rewrite Hn. rewrite bytes_eqb_refl. rewrite Hk. reflexivity.
Qed.

(* an error the crate raises at a key, with the key's span *)
Lemma L_at_key {A} (s : stree) (st : step) k ksp :
  locate s [st] true = Some (Some ksp) ->
  errs (linv s) (under st (on_key (@raise_at A k (Some ksp)))).
Proof.
  intro Hl. unfold under, on_key, raise_at. cbn [map_err errs]. unfold linv, located. cbn [e_kind e_span e_at e_onkey].
  split; [discriminate|]. intros _. exists ksp. split; [reflexivity|exact Hl].
Qed.

(* ---- the deserializer: binv inside a node, ninv for what it returns, linv once handed out (Proofs/DeLocWalk.v) ---- *)
Lemma L_closed c : opt_overwrite c = false ->
  closed c (fun s => all_spans s = true) (fun e => has_span (en_kspan e) = true) binv ninv linv.
Proof.
  intro NoSeed. constructor.
  - intros sp xs H. exact (proj2 (all_spans_arr sp xs H)).
  - intros sp es H. exact (proj2 (all_spans_tab sp es H)).
  - intros s e F. right. exact F.
  - intros s e L. left. exact L.
  - intros s e [L|[F _]]; [left; exact L|right; exact F].
  - intros s e L. left. exact L.
  - intros s k Hk. right. split; [repeat split|exact Hk].
  - intro s. split; [discriminate|]. intro C. exfalso. apply C. reflexivity.
  - intros s k Hs. exact (L_raise_at_here (A := unit) s k (all_spans_here s Hs)).
  - intros A s r Hs H. exact (L_wrap s r (all_spans_here s Hs) H).
  - intros A s r Seed. rewrite NoSeed in Seed. discriminate Seed.
  - intros A sp es i e r Hn _ Hv H. exact (L_value_of_entry sp es i e r Hn (all_spans_here _ Hv) H).
  - intros A sp es i e r Hn Hk H. exact (L_key_of_entry sp es i e r Hn Hk H).
  - intros sp es i e st k Hn Hk Hst. destruct (has_span_some _ Hk) as [ksp Eq]. rewrite Eq.
    apply (L_at_key (A := unit)). unfold entry in *.
    destruct Hst as [->|[->|[-> ->]]]; cbn [locate]; rewrite ?Hn, bytes_eqb_refl, Eq; reflexivity.
  - intros A sp xs i x r Hn. apply L_under, leads_idx, Hn.
  - intros A sp e r. apply L_under, leads_var.
  - intros A sp es i e r Hn. apply L_under, (leads_entry sp es i); [right; reflexivity|exact Hn].
Qed.

Theorem L_de_loc c t : opt_overwrite c = false -> forall s, all_spans s = true -> errs (ninv s) (de_loc c t s).
Proof. intro NoSeed. exact (walk_de_loc c _ _ _ _ _ (L_closed c NoSeed) t). Qed.

(* the statements *)
Theorem span_with_text c t s e :
  opt_overwrite c = false -> all_spans s = true -> de_loc c t s = LErr e -> e_kind e <> KUnmodelled ->
  (exists sp, e_span e = Some sp /\ locate s (e_at e) (e_onkey e) = Some (Some sp)) \/
  (e_kind e = KDtKind /\ e_at e = [] /\ e_span e = None).
Proof.
  intros NoSeed Hs E C. pose proof (L_de_loc c t NoSeed s Hs) as H. rewrite E in H.
  destruct H as [[_ L]|[[(_ & A & _) N] [K|K]]]; [left; exact (L C)|right; repeat split; assumption|contradiction].
Qed.

(* whoever hands the node out attaches its span: the error a visitor sees for an element of an array, a
   value of a table, the payload of a newtype variant, the inside of an option is always located *)
Theorem span_handed_out c t s e :
  opt_overwrite c = false -> all_spans s = true -> wrap (span_of s) (de_loc c t s) = LErr e -> e_kind e <> KUnmodelled ->
  exists sp, e_span e = Some sp /\ locate s (e_at e) (e_onkey e) = Some (Some sp).
Proof.
  intros NoSeed Hs E C.
  pose proof (handed_out c _ _ _ _ _ (L_closed c NoSeed) (de_loc c) t s (L_de_loc c t NoSeed) Hs) as H. rewrite E in H. exact (proj2 H C).
Qed.
