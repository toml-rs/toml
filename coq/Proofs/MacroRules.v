(* Proofs/MacroRules.v — C19: which rule of toml_internal! fires on the inputs `tokens_of` produces, and
   with which bindings.  The key/value rules of the three states @toplevel / @table / @array are
   "prefix ++ TAIL ++ suffix ++ $($rest:tt)*" with the same fourteen TAILs in the same order
   (`tails`: two sign rules, the eleven date-time shapes, the catch-all `$v:tt`), so the question
   "which rule" is "which is the first tail that matches the value tokens" (`first_tail`), and that
   is decided by computation on the token skeleton of the value (symbolic literal contents). *)
From TV Require Import Base.Prelude Model.Macro Proofs.MacroMatch.

(* ---- the rule lists, regrouped ---- *)
Definition tails (mk_sign mk_dt : list tpl -> body) (generic : body) : list (list pat * body) :=
  [([P c_minus; V Vv], mk_sign [QGroup DParen [Q c_minus; QVar Vv]]);
   ([P c_plus; V Vv], mk_sign [QGroup DParen [QVar Vv]])]
  ++ List.map (fun s => (fst s, mk_dt (snd s))) dt_shapes ++ [([V Vv], generic)].

Definition top_tails := tails (fun v => BInvoke (top_again v)) (fun q => BInvoke (top_dt q)) (BInsert true top_next).
Definition tab_tails := tails (fun v => BInvoke (tab_again v)) (fun q => BInvoke (tab_dt q)) (BInsert false tab_next).
Definition arr_tails := tails (fun v => BInvoke (arr_again v)) (fun q => BInvoke (arr_dt q)) (BArrPush arr_next).

Definition kv_rules (pre sfx : list pat) (tls : list (list pat * body)) : list rule :=
  List.map (fun tb => mkRule (pre ++ fst tb ++ sfx ++ [starP Vrest]) (snd tb)) tls.

Definition top_pre : list pat := top_prefix ++ [keyP Vk; P c_eq].
Definition tab_pre : list pat := pstate id_table ++ [rootP; keyP Vk; P c_eq].
Definition arr_pre : list pat := pstate id_array ++ [rootP].

Definition rule_arrhdr : rule :=
  mkRule (pstate id_toplevel ++ [rootP; V Voldpath; PGroup DBracket [PGroup DBracket [keyP Vpath]]; starP Vrest]) BArrHeader.
Definition rule_tabhdr : rule :=
  mkRule (pstate id_toplevel ++ [rootP; V Voldpath; PGroup DBracket [keyP Vpath]; starP Vrest]) BTabHeader.
Definition rule_topdt : rule :=
  mkRule (pstate id_topleveldatetime ++ [rootP; pathG; keyP Vk; P c_eq; PGroup DParen [plusP Vdatetime]; starP Vrest])
         (BInsertDt true top_next).
Definition rule_tabdt : rule :=
  mkRule (pstate id_tabledatetime ++ [rootP; keyP Vk; P c_eq; PGroup DParen [starP Vdatetime]; starP Vrest])
         (BInsertDt false tab_next).
Definition rule_arrdt : rule :=
  mkRule (pstate id_arraydatetime ++ [rootP; PGroup DParen [starP Vdatetime]; starP Vrest]) (BArrPushDt arr_next).

(* the rules of each state, in source order (the table itself, by evaluation) *)
Lemma rules_toplevel_state : filter (for_state id_toplevel) rules
  = mkRule top_prefix BNothing :: kv_rules top_pre [] top_tails ++ [rule_arrhdr; rule_tabhdr].
Proof. reflexivity. Qed.
Lemma rules_table_state : filter (for_state id_table) rules
  = mkRule (pstate id_table ++ [rootP]) BNothing :: kv_rules tab_pre [P c_comma] tab_tails ++ [].
Proof. reflexivity. Qed.
Lemma rules_array_state : filter (for_state id_array) rules
  = mkRule arr_pre BNothing :: kv_rules arr_pre [P c_comma] arr_tails ++ [].
Proof. reflexivity. Qed.
Lemma rules_topdt_state : filter (for_state id_topleveldatetime) rules = [rule_topdt].
Proof. reflexivity. Qed.
Lemma rules_tabdt_state : filter (for_state id_tabledatetime) rules = [rule_tabdt].
Proof. reflexivity. Qed.
Lemma rules_arrdt_state : filter (for_state id_arraydatetime) rules = [rule_arrdt].
Proof. reflexivity. Qed.
Lemma rules_path_state : filter (for_state id_path) rules = firstn 2 rules_path_value.
Proof. reflexivity. Qed.
Lemma rules_value_state : filter (for_state id_value) rules = skipn 2 rules_path_value.
Proof. reflexivity. Qed.
Lemma rules_tc_state : filter (for_state id_trailingcomma) rules = rules_trailingcomma.
Proof. reflexivity. Qed.

(* ---- one rule, once the match of its head is known ---- *)
Lemma match_rule_of : forall r X E Y, seq_match match_pat (r_head r) X = Some (E, Y) ->
  match_rule r X = match Y with [] => Some E | _ :: _ => None end.
Proof. intros r X E Y H. unfold match_rule, match_seq. rewrite H. reflexivity. Qed.

Lemma seq_match_app_some : forall ps1 ps2 ts e1 r e2 r2,
  seq_match match_pat ps1 ts = Some (e1, r) -> seq_match match_pat ps2 r = Some (e2, r2) ->
  seq_match match_pat (ps1 ++ ps2) ts = Some (e1 ++ e2, r2).
Proof. intros ps1 ps2 ts e1 r e2 r2 H1 H2. rewrite seq_match_app, H1, H2. reflexivity. Qed.

(* ---- the first tail that matches ---- *)
Fixpoint first_tail (sfx : list pat) (tls : list (list pat * body)) (Y : list tt) : option (body * env * list tt) :=
  match tls with
  | [] => None
  | (tl, b) :: more =>
    match seq_match match_pat (tl ++ sfx) Y with
    | Some (e, rest) => Some (b, e, rest)
    | None => first_tail sfx more Y
    end
  end.

(* the key/value rules of a state, on an input of which `pre` takes the front part *)
Lemma kv_rules_first : forall pre sfx tls X E Y, seq_match match_pat pre X = Some (E, Y) ->
  first_match (kv_rules pre sfx tls) X =
  match first_tail sfx tls Y with
  | Some (b, e, rest) => Some (b, E ++ e ++ [(Vrest, tts_bnd rest)])
  | None => None
  end.
Proof.
  intros pre sfx tls X E Y H. induction tls as [|[tl b] tls IH]; [reflexivity|].
  cbn [kv_rules List.map first_match first_tail fst snd]. fold (kv_rules pre sfx tls). rewrite IH.
  unfold match_rule, match_seq. cbn [r_head]. rewrite seq_match_app, H, app_assoc, seq_match_app.
  destruct (seq_match match_pat (tl ++ sfx) Y) as [[e rest]|]; [|reflexivity].
  rewrite seq_match_cons, match_star. reflexivity.
Qed.

(* a state whose rules are: the rule for the end of the input, then its key/value rules *)
Lemma kv_state_first : forall s X base pre sfx tls more E0 Y0 E Y b e rest,
  filter (for_state s) rules = mkRule base BNothing :: kv_rules pre sfx tls ++ more ->
  seq_match match_pat base (TPunct c_at :: TIdent s :: X) = Some (E0, Y0) -> Y0 <> [] ->
  seq_match match_pat pre (TPunct c_at :: TIdent s :: X) = Some (E, Y) ->
  first_tail sfx tls Y = Some (b, e, rest) ->
  first_match rules (TPunct c_at :: TIdent s :: X) = Some (b, E ++ e ++ [(Vrest, tts_bnd rest)]).
Proof.
  intros s X base pre sfx tls more E0 Y0 E Y b e rest Hst H0 Hne Hpre Ht.
  rewrite first_match_state, Hst. cbn [first_match].
  rewrite (match_rule_of (mkRule base BNothing) _ E0 Y0 H0). destruct Y0; [contradiction|].
  rewrite first_match_app, (kv_rules_first pre sfx tls _ E Y Hpre), Ht. reflexivity.
Qed.

(* a state whose first rule matches the whole input *)
Lemma state_first_head : forall s X hd b more E, filter (for_state s) rules = mkRule hd b :: more ->
  seq_match match_pat hd (TPunct c_at :: TIdent s :: X) = Some (E, []) ->
  first_match rules (TPunct c_at :: TIdent s :: X) = Some (b, E).
Proof.
  intros s X hd b more E Hst H. rewrite first_match_state, Hst. cbn [first_match].
  rewrite (match_rule_of (mkRule hd b) _ E [] H). reflexivity.
Qed.

(* ---- inputs and the prefixes of the heads ---- *)
Definition top_in (r : bytes) (pt : list tt) (X : list tt) : list tt :=
  TPunct c_at :: TIdent id_toplevel :: TIdent r :: TGroup DBracket pt :: X.
Definition st_in (st r : bytes) (X : list tt) : list tt := TPunct c_at :: TIdent st :: TIdent r :: X.

Definition segs_ok (segs : list (list tt)) : Prop := segs <> [] /\ Forall (fun s => s <> []) segs.

Definition E_top (r : bytes) (pt : list tt) (segs : list (list tt)) : env :=
  [(Vroot, BTT (TIdent r)); (Vpath, tts_bnd pt); (Vk, key_bnd segs)].
Definition E_tab (r : bytes) (segs : list (list tt)) : env :=
  [(Vroot, BTT (TIdent r)); (Vk, key_bnd segs)].
Definition E_arr (r : bytes) : env := [(Vroot, BTT (TIdent r))].

(* the variables the front part of a head binds; the tails bind others *)
Definition ctx_vars : list var := [Vroot; Vpath; Vk].

Lemma env_skip : forall E, forallb (fun xb => var_mem (fst xb) ctx_vars) E = true ->
  forall x e, var_mem x ctx_vars = false -> lookup x (E ++ e) = lookup x e.
Proof.
  intros E HE x e Hx. rewrite lookup_app. induction E as [|[y b] E IH]; [reflexivity|].
  cbn [forallb fst] in HE. apply andb_true_iff in HE as [Hy HE]. cbn [lookup].
  destruct (var_beq x y) eqn:Exy; [|exact (IH HE)].
  apply var_beq_true in Exy. subst y. rewrite Hx in Hy. discriminate Hy.
Qed.

Lemma pstate_match : forall s ps X,
  seq_match match_pat (pstate s ++ ps) (TPunct c_at :: TIdent s :: X) = seq_match match_pat ps X.
Proof.
  intros. cbn [pstate app]. rewrite seq_match_cons, match_punct_same, seq_match_cons, match_ident_same.
  destruct (seq_match match_pat ps X) as [[e r]|]; reflexivity.
Qed.

Lemma st_prefix : forall s r X, ident_frag_ok r = true ->
  seq_match match_pat (pstate s ++ [rootP]) (st_in s r X) = Some (E_arr r, X).
Proof. intros s r X Hr. unfold st_in. rewrite pstate_match, seq_match_cons, (match_root r _ Hr). reflexivity. Qed.

Lemma path_prefix : forall s r pt X, ident_frag_ok r = true ->
  seq_match match_pat (pstate s ++ [rootP; pathG]) (st_in s r (TGroup DBracket pt :: X))
  = Some ([(Vroot, BTT (TIdent r)); (Vpath, tts_bnd pt)], X).
Proof.
  intros s r pt X Hr. change (pstate s ++ [rootP; pathG]) with ((pstate s ++ [rootP]) ++ [pathG]).
  apply (seq_match_app_some _ _ _ _ _ _ _ (st_prefix s r _ Hr)).
  unfold pathG. rewrite seq_match_cons, match_group_star. reflexivity.
Qed.

Lemma key_eq_match : forall x segs Y, segs_ok segs ->
  seq_match match_pat [keyP x; P c_eq] (dot_join segs ++ TPunct c_eq :: Y) = Some ([(x, key_bnd segs)], Y).
Proof.
  intros x segs Y [Hne Hall].
  rewrite seq_match_cons, (match_key x segs (TPunct c_eq :: Y) Hne Hall eq_refl eq_refl).
  rewrite seq_match_cons, match_punct_same. reflexivity.
Qed.

Lemma path_key_prefix : forall s r pt segs Y, ident_frag_ok r = true -> segs_ok segs ->
  seq_match match_pat (pstate s ++ [rootP; pathG; keyP Vk; P c_eq])
            (st_in s r (TGroup DBracket pt :: dot_join segs ++ TPunct c_eq :: Y)) = Some (E_top r pt segs, Y).
Proof.
  intros s r pt segs Y Hr Hs.
  exact (seq_match_app_some _ _ _ _ _ _ _ (path_prefix s r pt _ Hr) (key_eq_match Vk segs Y Hs)).
Qed.

Lemma key_prefix : forall s r segs Y, ident_frag_ok r = true -> segs_ok segs ->
  seq_match match_pat (pstate s ++ [rootP; keyP Vk; P c_eq]) (st_in s r (dot_join segs ++ TPunct c_eq :: Y))
  = Some (E_tab r segs, Y).
Proof.
  intros s r segs Y Hr Hs.
  exact (seq_match_app_some _ _ _ _ _ _ _ (st_prefix s r _ Hr) (key_eq_match Vk segs Y Hs)).
Qed.

(* ---- a key/value statement, an element ---- *)
Theorem top_first_match_kv : forall r pt segs Y b e rest, ident_frag_ok r = true -> segs_ok segs ->
  first_tail [] top_tails Y = Some (b, e, rest) ->
  first_match rules (top_in r pt (dot_join segs ++ TPunct c_eq :: Y))
  = Some (b, E_top r pt segs ++ e ++ [(Vrest, tts_bnd rest)]).
Proof.
  intros r pt segs Y b e rest Hr Hs Ht.
  eapply kv_state_first;
    [exact rules_toplevel_state|exact (path_prefix id_toplevel r pt _ Hr)| |exact (path_key_prefix id_toplevel r pt segs Y Hr Hs)|exact Ht].
  destruct (dot_join segs); discriminate.
Qed.

Theorem tab_first_match_kv : forall r segs Y b e rest, ident_frag_ok r = true -> segs_ok segs ->
  first_tail [P c_comma] tab_tails Y = Some (b, e, rest) ->
  first_match rules (st_in id_table r (dot_join segs ++ TPunct c_eq :: Y))
  = Some (b, E_tab r segs ++ e ++ [(Vrest, tts_bnd rest)]).
Proof.
  intros r segs Y b e rest Hr Hs Ht.
  eapply kv_state_first;
    [exact rules_table_state|exact (st_prefix id_table r _ Hr)| |exact (key_prefix id_table r segs Y Hr Hs)|exact Ht].
  destruct (dot_join segs); discriminate.
Qed.

Theorem arr_first_match_el : forall r t Y b e rest, ident_frag_ok r = true ->
  first_tail [P c_comma] arr_tails (t :: Y) = Some (b, e, rest) ->
  first_match rules (st_in id_array r (t :: Y)) = Some (b, E_arr r ++ e ++ [(Vrest, tts_bnd rest)]).
Proof.
  intros r t Y b e rest Hr Ht.
  eapply kv_state_first;
    [exact rules_array_state|exact (st_prefix id_array r _ Hr)|discriminate|exact (st_prefix id_array r _ Hr)|exact Ht].
Qed.

(* the end of the input *)
Lemma top_first_match_end : forall r pt, ident_frag_ok r = true ->
  first_match rules (top_in r pt []) = Some (BNothing, [(Vroot, BTT (TIdent r)); (Vpath, tts_bnd pt)]).
Proof. intros r pt Hr. exact (state_first_head _ _ _ _ _ _ rules_toplevel_state (path_prefix id_toplevel r pt [] Hr)). Qed.

Lemma tab_first_match_end : forall r, ident_frag_ok r = true ->
  first_match rules (st_in id_table r []) = Some (BNothing, [(Vroot, BTT (TIdent r))]).
Proof. intros r Hr. exact (state_first_head _ _ _ _ _ _ rules_table_state (st_prefix id_table r [] Hr)). Qed.

Lemma arr_first_match_end : forall r, ident_frag_ok r = true ->
  first_match rules (st_in id_array r []) = Some (BNothing, [(Vroot, BTT (TIdent r))]).
Proof. intros r Hr. exact (state_first_head _ _ _ _ _ _ rules_array_state (st_prefix id_array r [] Hr)). Qed.
