(* Proofs/WFBoolSound.v — the decision procedure of Proofs/WFBool.v is sound: `wf_b root = true -> WF root`
   (tokens through the soundness half of C01 L1, Proofs/LexEquiv*.v). *)
From TV Require Import Base.Prelude Base.Winnow Spec.Abnf Spec.Lex Spec.Syntax Spec.WF.
From TV Require Import Model.Tree Model.Parse.
From TV Require Import Proofs.SpansDefs.
From TV Require Import Proofs.WFBool Proofs.WFTok Proofs.WFPrintKey Proofs.WFTree.
Require Import Lia NArith ZArith.

(* ---- trivia --------------------------------------------------------------------------------------------------------- *)
Lemma ws_b_sound t : ws_b t = true -> ws_tok t.
Proof. exact (fun H => H). Qed.
Lemma comment_b_sound t : comment_b t = true -> comment_tok t.
Proof.
  destruct t as [|b u]; [discriminate|]. cbn [comment_b]. intro H. apply andb_true_iff in H as [H1 H2]. apply byte_eqb_eq in H1. subst.
  exists u. split; [reflexivity|exact H2].
Qed.
Lemma line_trail_b_sound t : line_trail_b t = true -> line_trail_tok t.
Proof.
  unfold line_trail_b. intro H. exists (fst (span_while wschar t)), (snd (span_while wschar t)).
  split; [symmetry; apply span_while_app|]. split; [apply span_while_all|].
  destruct (snd (span_while wschar t)); [left; reflexivity|right; apply comment_b_sound, H].
Qed.

Lemma cut_lf_none t l : cut_lf t = (l, None) -> t = l.
Proof.
  revert l. induction t as [|b r IH]; intros l H; cbn [cut_lf] in H; [inversion H; reflexivity|].
  destruct (byte_eqb b x0a); [discriminate|]. destruct (cut_lf r) as [l0 o] eqn:E. inversion H; subst. rewrite (IH l0 eq_refl). reflexivity.
Qed.
Lemma cut_lf_some t l r : cut_lf t = (l, Some r) -> t = l ++ [x0a] ++ r.
Proof.
  revert l. induction t as [|b t IH]; intros l H; cbn [cut_lf] in H; [discriminate|].
  destruct (byte_eqb b x0a) eqn:Eb.
  - apply byte_eqb_eq in Eb. inversion H; subst. reflexivity.
  - destruct (cut_lf t) as [l0 o] eqn:E. inversion H; subst. rewrite (IH l0 eq_refl). reflexivity.
Qed.

Lemma lines_b_gen (last : bytes -> bool) (Q : bytes -> Prop) :
  (forall t, last t = true -> Q t) ->
  (forall w c t, ws_tok w -> opt_comment c -> Q t -> Q (w ++ c ++ [x0a] ++ t)) ->
  forall fuel t, lines_gen last fuel t = true -> Q t.
Proof.
  intros Hlast Hmore. induction fuel as [|f IH]; intros t H; [discriminate|]. cbn [lines_gen] in H.
  destruct (cut_lf t) as [l [r|]] eqn:E.
  - apply andb_true_iff in H as [H1 H2]. rewrite (cut_lf_some _ _ _ E). destruct (line_trail_b_sound l H1) as (w & c & -> & Hw & Hc).
    rewrite <- app_assoc. apply Hmore; auto.
  - rewrite (cut_lf_none _ _ E). apply Hlast, H.
Qed.
Lemma lines_b_sound t : lines_b t = true -> lines_tok t.
Proof.
  apply (lines_b_gen ws_b lines_tok); [intros u H; apply ln_last, H|intros; apply ln_more; assumption].
Qed.
Lemma doc_trail_b_sound t : doc_trail_b t = true -> doc_trail_tok t.
Proof.
  apply (lines_b_gen line_trail_b doc_trail_tok); [intros u H; apply dt_last, line_trail_b_sound, H|intros; apply dt_more; assumption].
Qed.

(* LF-only lines are ws-comment-newline *)
Lemma lines_wscn t : lines_tok t -> wscn_tok t.
Proof.
  induction 1 as [w Hw|w c t Hw Hc _ IH]; [apply ws_wscn, Hw|].
  assert (G : wscn_tok (c ++ [x0a] ++ t)) by (apply wscn_nl; [exact Hc|left; reflexivity|exact IH]).
  revert G. generalize (c ++ [x0a] ++ t). intros u Hu. unfold ws_tok, all in Hw. induction w as [|b w IHw]; [exact Hu|].
  cbn [forallb] in Hw. apply andb_true_iff in Hw as [H1 H2]. cbn [app]. apply wscn_ws; auto.
Qed.

Lemma slot_b_sound sl t : slot_b sl t = true -> slot_ok sl t.
Proof.
  destruct sl; cbn [slot_b slot_ok]; intro H;
    [exact H|apply line_trail_b_sound, H|apply lines_b_sound, H|apply lines_wscn, lines_b_sound, H|apply doc_trail_b_sound, H].
Qed.
Lemma raw_b_sound sl r : raw_b sl r = true -> raw_ok sl r.
Proof. destruct r; cbn [raw_b raw_ok]; [apply slot_b_sound|apply slot_b_sound|discriminate]. Qed.
Lemma oraw_b_sound sl o : oraw_b sl o = true -> oraw_ok sl o.
Proof. destruct o; cbn [oraw_b oraw_ok]; [apply raw_b_sound|auto]. Qed.
Lemma decor_b_sound pre suf d : decor_b pre suf d = true -> decor_ok pre suf d.
Proof. unfold decor_b, decor_ok. intro H. apply andb_true_iff in H as [H1 H2]. split; apply oraw_b_sound; assumption. Qed.

(* ---- tokens ------------------------------------------------------------------------------------------------------------ *)
Lemma whole_sound {A} (eqb : A -> A -> bool) (p : parser A) t x :
  (forall a b, eqb a b = true -> a = b) -> whole eqb p t x = true -> exists i', p (new_input t) = Ok x i' /\ rest i' = [].
Proof.
  intros He. unfold whole. destruct (p (new_input t)) as [y i'| | |]; try discriminate. destruct (rest i') eqn:R; [|discriminate].
  intro H. apply He in H. subst. eauto.
Qed.
Lemma fval_eqb_eq a b : fval_eqb a b = true -> a = b.
Proof.
  destruct a, b; cbn [fval_eqb]; try discriminate; intro H.
  - apply Bool.eqb_prop in H. congruence.
  - apply Bool.eqb_prop in H. congruence.
  - apply andb_true_iff in H as [H H3]. apply andb_true_iff in H as [H1 H2]. apply Bool.eqb_prop in H1. apply N.eqb_eq in H2. apply Z.eqb_eq in H3. congruence.
Qed.
Lemma opt_eqb_eq {A} (eqb : A -> A -> bool) (a b : option A) : (forall x y, eqb x y = true -> x = y) -> opt_eqb eqb a b = true -> a = b.
Proof. intros He. destruct a, b; cbn [opt_eqb]; try discriminate; [intro H; f_equal; apply He, H|reflexivity]. Qed.
Lemma date_eqb_eq a b : date_eqb a b = true -> a = b.
Proof.
  destruct a, b. unfold date_eqb. simpl. intro H. apply andb_true_iff in H as [H H3]. apply andb_true_iff in H as [H1 H2].
  apply N.eqb_eq in H1, H2, H3. congruence.
Qed.
Lemma time_eqb_eq a b : time_eqb a b = true -> a = b.
Proof.
  destruct a, b. unfold time_eqb. simpl. intro H. apply andb_true_iff in H as [H H4]. apply andb_true_iff in H as [H H3].
  apply andb_true_iff in H as [H1 H2]. apply N.eqb_eq in H1, H2, H3, H4. congruence.
Qed.
Lemma offset_eqb_eq a b : offset_eqb a b = true -> a = b.
Proof. destruct a, b; cbn [offset_eqb]; try discriminate; [reflexivity|]. intro H. apply Z.eqb_eq in H. congruence. Qed.
Lemma datetime_eqb_eq a b : datetime_eqb a b = true -> a = b.
Proof.
  destruct a, b. unfold datetime_eqb. simpl. intro H. apply andb_true_iff in H as [H H3]. apply andb_true_iff in H as [H1 H2].
  apply (opt_eqb_eq _ _ _ date_eqb_eq) in H1. apply (opt_eqb_eq _ _ _ time_eqb_eq) in H2. apply (opt_eqb_eq _ _ _ offset_eqb_eq) in H3. congruence.
Qed.

Lemma scalar_tok_b_sound t x : scalar_tok_b t x = true -> scalar_tok t x.
Proof.
  destruct x as [v|z|f|b|d]; cbn [scalar_tok_b scalar_tok]; intro H.
  - destruct (whole_sound _ _ _ _ (fun a b => proj1 (bytes_eqb_eq a b)) H) as (i' & P & R). exact (string_whole _ _ _ P R).
  - destruct (whole_sound _ _ _ _ (fun a b => proj1 (Z.eqb_eq a b)) H) as (i' & P & R). exact (proj1 (integer_whole _ _ _ P R)).
  - destruct (whole_sound _ _ _ _ fval_eqb_eq H) as (i' & P & R). exact (float_whole _ _ _ P R).
  - destruct (whole_sound _ _ _ _ Bool.eqb_prop H) as (i' & P & R). exact (boolean_whole _ _ _ P R).
  - destruct (whole_sound _ _ _ _ datetime_eqb_eq H) as (i' & P & R). exact (date_time_whole _ _ _ P R).
Qed.
Lemma scalar_lim_b_sound x : scalar_lim_b x = true -> scalar_lim x.
Proof. destruct x as [v|z|f|b|d]; cbn [scalar_lim_b scalar_lim]; auto. destruct f; auto. intro H. apply negb_true_iff in H. exact H. Qed.
Lemma default_b_sound x : default_b x = true -> default_ok x.
Proof. destruct x as [v|z|f|b|d]; cbn [default_b default_ok]; auto. destruct f; auto. discriminate. Qed.
Lemma repr_b_sound x r : repr_b x r = true -> repr_ok x r.
Proof. destruct r as [[|s|a b]|]; cbn [repr_b repr_ok]; try discriminate; [apply scalar_tok_b_sound|apply default_b_sound]. Qed.
Lemma key_repr_b_sound k : key_repr_b k = true -> key_repr_ok k.
Proof.
  unfold key_repr_b, key_repr_ok. destruct (k_repr k) as [[|s|a b]|]; try discriminate; [|auto]. intro H.
  destruct (whole_sound _ _ _ _ (fun a b => proj1 (bytes_eqb_eq a b)) H) as (i' & P & R). unfold pmap in P.
  destruct (simple_key (new_input s)) as [[rw kk] j| | |] eqn:E; try discriminate. inversion P; subst. cbn [snd] in *.
  exact (simple_key_whole _ _ _ _ E R).
Qed.
Lemma key_b_sound line k : key_b line k = true -> key_wf line k.
Proof.
  unfold key_b, key_wf. intro H. apply andb_true_iff in H as [H H3]. apply andb_true_iff in H as [H1 H2].
  split; [apply key_repr_b_sound, H1|split; apply decor_b_sound; assumption].
Qed.

Lemma nodup_b_sound l : nodup_b l = true -> NoDup l.
Proof.
  induction l as [|x l IH]; [constructor|]. cbn [nodup_b]. intro H. apply andb_true_iff in H as [H1 H2]. constructor; [|apply IH, H2].
  intro Hin. apply negb_true_iff in H1. assert (E : existsb (bytes_eqb x) l = true) by (apply existsb_exists; exists x; split; [exact Hin|apply bytes_eqb_refl]).
  congruence.
Qed.
Lemma vdecor_b_sound c d : vdecor_b c d = true -> vdecor_ok c d.
Proof. destruct c; cbn [vdecor_b vdecor_ok]; apply decor_b_sound. Qed.

Lemma forallb_all_P {A} (f : A -> bool) (P : A -> Prop) l : Forall (fun x => f x = true -> P x) l -> forallb f l = true -> all_P P l.
Proof.
  induction 1 as [|x l Hx _ IH]; [exact (fun _ => I)|]. cbn [forallb all_P]. intro H. apply andb_true_iff in H as [H1 H2]. auto.
Qed.

(* ---- values ------------------------------------------------------------------------------------------------------------ *)
Definition wf_sound_v (v : value) : Prop :=
  (forall c, value_b c v = true -> value_wf c v) /\ (forall line, pair_b line (IValue v) = true -> pair_wf line (IValue v)).
Definition wf_sound_i (it : item) : Prop := match it with IValue v => wf_sound_v v | _ => True end.
Lemma wf_sound_pair it : wf_sound_i it -> forall line, pair_b line it = true -> pair_wf line it.
Proof. destruct it; try discriminate. intros [_ H]. exact H. Qed.

Lemma value_pair_b_sound : (forall v, wf_sound_v v) /\ (forall it, wf_sound_i it) /\ (forall t : tbl, True).
Proof.
  apply tree_ind3.
  - intros s r d.
    assert (A : forall c, value_b c (VScalar s r d) = true -> value_wf c (VScalar s r d)).
    { intros c H. cbn [value_b value_wf] in *. apply andb_true_iff in H as [H H3]. apply andb_true_iff in H as [H1 H2].
      split; [apply repr_b_sound, H1|split; [apply scalar_lim_b_sound, H2|apply vdecor_b_sound, H3]]. }
    split; [exact A|]. intros line H. apply A, H.
  - intros vals tr cm d sp IH.
    assert (A : forall c, value_b c (VArray vals tr cm d sp) = true -> value_wf c (VArray vals tr cm d sp)).
    { intros c H. cbn [value_b value_wf] in *. apply andb_true_iff in H as [H H3]. apply andb_true_iff in H as [H1 H2].
      split; [apply vdecor_b_sound, H1|split; [apply raw_b_sound, H2|]].
      refine (forallb_all_P _ _ _ _ H3). eapply Forall_impl; [|exact IH]. intros it Hit Hb. destruct it as [|e| |]; try discriminate.
      exact (proj1 Hit _ Hb). }
    split; [exact A|]. intros line H. apply A, H.
  - intros items pre im dt d sp IH.
    assert (A : forall c, value_b c (VInline items pre im dt d sp) = true -> value_wf c (VInline items pre im dt d sp)).
    { intros c H. cbn [value_b value_wf] in *. apply andb_true_iff in H as [H H4]. apply andb_true_iff in H as [H H3].
      apply andb_true_iff in H as [H1 H2].
      split; [apply vdecor_b_sound, H1|split; [apply raw_b_sound, H2|split; [apply nodup_b_sound, H3|]]].
      refine (forallb_all_P _ _ _ _ H4). eapply Forall_impl; [|exact IH]. intros kv Hkv Hb. apply andb_true_iff in Hb as [Hb1 Hb2].
      split; [apply key_b_sound, Hb1|apply (wf_sound_pair _ Hkv), Hb2]. }
    split; [exact A|]. intros line H. destruct dt; [|apply A, H].
    cbn [pair_b pair_wf] in *. apply andb_true_iff in H as [H H3]. apply andb_true_iff in H as [H1 H2].
    split; [destruct items; [discriminate|discriminate]|split; [apply nodup_b_sound, H2|]].
    refine (forallb_all_P _ _ _ _ H3). eapply Forall_impl; [|exact IH]. intros kv Hkv Hb. apply andb_true_iff in Hb as [Hb1 Hb2].
    split; [apply key_b_sound, Hb1|apply (wf_sound_pair _ Hkv), Hb2].
  - exact I.
  - intros v Hv. exact Hv.
  - intros; exact I.
  - intros; exact I.
  - intros; exact I.
Qed.
Lemma pair_b_sound line it : pair_b line it = true -> pair_wf line it.
Proof. apply wf_sound_pair. apply (proj1 (proj2 value_pair_b_sound)). Qed.

(* ---- tables ------------------------------------------------------------------------------------------------------------ *)
Lemma tbl_b_sound : forall t top, tbl_b top t = true -> tbl_wf top t.
Proof.
  induction t as [items d im dt p sp IH] using tbl_sub_ind. intros top H. cbn [tbl_b tbl_wf] in *.
  apply andb_true_iff in H as [H H3]. apply andb_true_iff in H as [H1 H2].
  split; [apply decor_b_sound, H1|split; [apply nodup_b_sound, H2|]].
  refine (forallb_all_P _ _ _ _ H3). eapply Forall_impl; [|exact IH]. intros [k it] Hkv Hb. cbn [fst snd] in *.
  apply andb_true_iff in Hb as [Hb1 Hb2]. split; [apply key_b_sound, Hb1|].
  destruct it as [|v|sub|ts asp].
  - discriminate.
  - apply pair_b_sound, Hb2.
  - apply andb_true_iff in Hb2 as [Hs Hf]. split; [apply Hkv, Hs|]. destruct (t_dotted sub); apply orb_true_iff in Hf; exact Hf.
  - apply andb_true_iff in Hb2 as [Hne Hts]. split; [destruct ts; [discriminate|discriminate]|].
    refine (forallb_all_P _ _ _ _ Hts). eapply Forall_impl; [|exact Hkv]. intros e He Hb. apply andb_true_iff in Hb as [Hd Hw].
    split; [apply negb_true_iff, Hd|apply He, Hw].
Qed.

(* ---- limits ------------------------------------------------------------------------------------------------------------- *)
Definition lim_sound_v (v : value) : Prop :=
  (forall d, value_lim_b d v = true -> value_lim d v)
  /\ (forall d n, pair_lim_b d n (IValue v) = true -> pair_lim d n (IValue v))
  /\ (forall n, line_lim_b n (IValue v) = true -> line_lim n (IValue v)).
Definition lim_sound_i (it : item) : Prop := match it with IValue v => lim_sound_v v | _ => True end.

Lemma lim_sound_plain v :
  (forall d, value_lim_b d v = true -> value_lim d v) ->
  match v with VInline _ _ _ true _ _ => False | _ => True end -> lim_sound_v v.
Proof.
  intros A Hv. split; [exact A|]. split.
  - intros d n H. destruct v as [x r d0|vals tr cm d0 sp|sub pre im dt d0 sp]; [| |destruct dt; [contradiction|]];
      cbn [pair_lim_b pair_lim] in *; apply andb_true_iff in H as [H1 H2]; apply Nat.ltb_lt in H1; auto.
  - intros n H. destruct v as [x r d0|vals tr cm d0 sp|sub pre im dt d0 sp]; [| |destruct dt; [contradiction|]];
      cbn [line_lim_b line_lim] in *; apply andb_true_iff in H as [H1 H2]; apply Nat.ltb_lt in H1; auto.
Qed.

Lemma lim_b_sound_all : (forall v, lim_sound_v v) /\ (forall it, lim_sound_i it) /\ (forall t : tbl, True).
Proof.
  apply tree_ind3.
  - intros s r d. apply lim_sound_plain; [intros; exact I|exact I].
  - intros vals tr cm d sp IH. apply lim_sound_plain; [|exact I].
    intros d0 H. cbn [value_lim_b value_lim] in *. apply andb_true_iff in H as [H1 H2]. apply Nat.ltb_lt in H1. split; [exact H1|].
    refine (forallb_all_P _ _ _ _ H2). eapply Forall_impl; [|exact IH]. intros it Hit Hb. destruct it as [|e| |]; auto.
    exact (proj1 Hit _ Hb).
  - intros items pre im dt d sp IH.
    assert (A : forall d0, value_lim_b d0 (VInline items pre im dt d sp) = true -> value_lim d0 (VInline items pre im dt d sp)).
    { intros d0 H. cbn [value_lim_b value_lim] in *. apply andb_true_iff in H as [H1 H2]. apply Nat.ltb_lt in H1. split; [exact H1|].
      refine (forallb_all_P _ _ _ _ H2). eapply Forall_impl; [|exact IH]. intros [k it] Hit Hb. cbn [snd] in *. destruct it as [|e| |]; try exact I.
      exact (proj1 (proj2 Hit) _ _ Hb). }
    destruct dt; [|apply lim_sound_plain; [exact A|exact I]].
    split; [exact A|]. split.
    + intros d0 n H. cbn [pair_lim_b pair_lim] in *. refine (forallb_all_P _ _ _ _ H). eapply Forall_impl; [|exact IH].
      intros [k it] Hit Hb. cbn [snd] in *. destruct it as [|e| |]; try exact I. exact (proj1 (proj2 Hit) _ _ Hb).
    + intros n H. cbn [line_lim_b line_lim] in *. refine (forallb_all_P _ _ _ _ H). eapply Forall_impl; [|exact IH].
      intros [k it] Hit Hb. cbn [snd] in *. destruct it as [|e| |]; try exact I. exact (proj2 (proj2 Hit) _ Hb).
  - exact I.
  - intros v Hv. exact Hv.
  - intros; exact I.
  - intros; exact I.
  - intros; exact I.
Qed.
Lemma line_lim_b_sound n it : line_lim_b n it = true -> line_lim n it.
Proof.
  destruct it as [|v| |]; try (intros; exact I). exact (proj2 (proj2 (proj1 lim_b_sound_all v)) n).
Qed.

Lemma tbl_lim_b_sound : forall t h n, tbl_lim_b h n t = true -> tbl_lim h n t.
Proof.
  induction t as [items d im dt p sp IH] using tbl_sub_ind. intros h n H. cbn [tbl_lim_b tbl_lim] in *.
  refine (forallb_all_P _ _ _ _ H). eapply Forall_impl; [|exact IH]. intros [k it] Hkv Hb. cbn [fst snd] in *.
  destruct it as [|v|sub|ts asp].
  - exact I.
  - apply line_lim_b_sound, Hb.
  - destruct (t_dotted sub); [apply Hkv, Hb|]. apply andb_true_iff in Hb as [H1 H2]. apply Nat.ltb_lt in H1. split; [exact H1|apply Hkv, H2].
  - apply andb_true_iff in Hb as [H1 H2]. apply Nat.ltb_lt in H1. split; [exact H1|].
    refine (forallb_all_P _ _ _ _ H2). eapply Forall_impl; [|exact Hkv]. intros e He Hb. apply He, Hb.
Qed.

(* ---- order, and all together -------------------------------------------------------------------------------------------- *)
Lemma nondecreasing_b_cons : forall l a, nondecreasing_b (a :: l) = true -> nondecreasing (a :: l).
Proof.
  induction l as [|b l IH]; intros a H; [exact I|]. cbn [nondecreasing_b nondecreasing] in *. apply andb_true_iff in H as [H1 H2].
  apply N.leb_le in H1. split; [exact H1|]. apply IH, H2.
Qed.
Lemma nondecreasing_b_sound l : nondecreasing_b l = true -> nondecreasing l.
Proof. destruct l; [exact (fun _ => I)|apply nondecreasing_b_cons]. Qed.

Theorem wf_b_sound root : wf_b root = true -> WF root.
Proof.
  unfold wf_b, WF. intro H. apply andb_true_iff in H as [H H4]. apply andb_true_iff in H as [H H3]. apply andb_true_iff in H as [H1 H2].
  split; [apply negb_true_iff, H1|]. split; [apply tbl_b_sound, H2|]. split; [apply tbl_lim_b_sound, H3|apply nondecreasing_b_sound, H4].
Qed.
Theorem wfdoc_b_sound root trailing : wfdoc_b root trailing = true -> WFdoc root trailing.
Proof. unfold wfdoc_b, WFdoc. intro H. apply andb_true_iff in H as [H1 H2]. split; [apply wf_b_sound, H1|apply raw_b_sound, H2]. Qed.
