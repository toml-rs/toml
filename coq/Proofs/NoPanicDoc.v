(* Proofs/NoPanicDoc.v — C04, part 5: document.rs / table.rs / mod.rs.  The line parsers are safe on
   every input whenever the parse state satisfies `inv`, they hand on a state satisfying `inv`, and
   every iteration of the document loop consumes at least one byte; hence
   `parse_document`, `parse_value_raw`, `parse_key`, `parse_key_path` never return PPanic. *)
From TV Require Import Base.Prelude Base.Winnow Gen.Consts.
From TV Require Import Model.Trivia Model.Tree Model.Parse Model.Document.
From TV Require Import Proofs.Eoi Proofs.NoPanicBase Proofs.NoPanicLex Proofs.NoPanicValue Proofs.NoPanicState.
From TV Require Import Proofs.DocumentOps.
Require Import Lia ZifyBool ZifyN ZifyNat.

(* ---- parse_keyval ------------------------------------------------------------------------------------- *)
Definition kv_rhs : parser ((N * N) * value * (N * N)) :=
  cut_err (context (byte_ KEYVAL_SEP) ;;;
           pre <- span_ ws ;; v <- value_ ;; suf <- context line_trailing ;; ret (pre, v, suf)).
Lemma kv_rhs_mono : mono kv_rhs. Proof. unfold kv_rhs. np. Qed.
Lemma kv_rhs_safe : safe kv_rhs. Proof. unfold kv_rhs. np. Qed.
#[export] Hint Resolve kv_rhs_mono kv_rhs_safe : np.

Lemma parse_keyval_eq :
  parse_keyval =
  (kp <- key_ ;;
   '(pre, v, suf) <- kv_rhs ;;
   match pop_key kp with
   | None => fun _ => Panic P_key_path_empty
   | Some (path, k) => ret (path, (k, IValue (value_decorate v (raw_with_span pre) (raw_with_span suf))))
   end).
Proof. reflexivity. Qed.

Lemma parse_keyval_mono : mono parse_keyval. Proof. rewrite parse_keyval_eq. np. Qed.
Lemma parse_keyval_progress : progress parse_keyval. Proof. rewrite parse_keyval_eq. np. Qed.
(* document.rs: path.pop().expect("grammar ensures at least 1") *)
Lemma parse_keyval_safe : safe parse_keyval.
Proof.
  rewrite parse_keyval_eq. eapply safe_bind_val; [np|np|np|apply key_val|]. intros kp Hkp.
  destruct (pop_key_nonempty kp Hkp) as (path & k & ->). np.
Qed.
Definition kv_good (x : list key * (key * item)) : Prop := good_item (snd (snd x)) = true.
Lemma parse_keyval_val : valP kv_good parse_keyval.
Proof.
  rewrite parse_keyval_eq. apply valP_bind; intro kp. apply valP_bind. intros [[pre v] suf].
  destruct (pop_key kp) as [[path k]|]; [|apply valP_const_panic]. apply valP_ret. reflexivity.
Qed.
#[export] Hint Resolve parse_keyval_mono parse_keyval_progress parse_keyval_safe : np.

(* ---- parsers indexed by a parse state -------------------------------------------------------------------- *)
Lemma lift_state_nopanic {A} (post : A -> Prop) (r : cres A) : cres_sat post r -> forall s, lift_state r <> TmPanic s.
Proof. destruct r; cbn [lift_state cres_sat]; intro H; try discriminate; contradiction. Qed.
Definition doc_loop_p (st : pstate) : parser pstate := fun i => doc_loop (S (length (rest i))) st i.
(* ---- a property of the parse state carried through a document ------------------------------------------- *)
(* Whatever the step functions of state.rs preserve, on the key paths and key/value pairs the
   grammar can hand them, holds of the state `document` returns. *)
Section StateInvariant.
  Variable I : pstate -> Prop.
  Variable KV : list key * (key * item) -> Prop.
  Variable HP : list key -> Prop.
  Hypothesis KV_parsed : valP KV parse_keyval.
  Hypothesis HP_parsed : valP HP key_.
  Hypothesis I_ws : forall st sp, I st -> I (on_ws st sp).
  Hypothesis I_keyval : forall st p k v st', I st -> KV (p, (k, v)) -> on_keyval_sp st p k v = COk st' -> I st'.
  Hypothesis I_header : forall ia st h t sp st', I st -> HP h -> on_header ia st h t sp = COk st' -> I st'.

  Lemma header_syntax_val ia : valP (fun x => HP (fst (fst x))) (header_syntax ia).
  Proof.
    unfold header_syntax. cbv zeta.
    eapply valP_weaken; [|apply (valP_pair_ (fun y : list key * (N * N) => HP (fst y)) (fun _ : N * N => True))].
    - intros x [H _]. exact H.
    - apply (valP_with_span HP), valP_delimited, valP_cut_err, HP_parsed.
    - apply valP_true.
  Qed.
  Lemma on_ws_inv {A} st (p : parser A) : I st -> valP I (pmap (on_ws st) (span_ p)).
  Proof. intro Hi. eapply valP_pmap; [apply valP_true|]. intros sp _. apply I_ws, Hi. Qed.
  Lemma line_read_inv st i j st0 : line_read st i j st0 -> I st -> I st0.
  Proof.
    intros Hr Hi. destruct Hr as [sp E|sp E|ia h sp t st' E Eo|p k v st' E Eo]; [apply I_ws, Hi|apply I_ws, Hi| |].
    - eapply I_header; [exact Hi|exact (header_syntax_val ia _ _ _ E)|exact Eo].
    - eapply I_keyval; [exact Hi|exact (KV_parsed _ _ _ E)|exact Eo].
  Qed.
  Lemma parse_ws_inv : stI (fun _ => I) parse_ws.
  Proof. intros st i st' i' E Hi. exact (on_ws_inv st ws Hi i st' i' E). Qed.
  Lemma doc_line_inv st : I st -> valP I (doc_line st).
  Proof. intros Hi i st' i' E. exact (doc_line_keeps _ parse_ws_inv line_read_inv st i st' i' E Hi). Qed.
  Lemma document_inv : I state_new -> valP I document.
  Proof.
    intros H0 i st i' E.
    exact (document_keeps _ (doc_line_keeps _ parse_ws_inv line_read_inv) i st i' parse_ws_inv (fun _ _ _ => H0) E).
  Qed.
End StateInvariant.

(* the steps of state.rs keep `inv` *)
Lemma inv_keyval_step st p k v st' : inv st -> kv_good (p, (k, v)) -> on_keyval_sp st p k v = COk st' -> inv st'.
Proof. intros Hi Hg. apply (cres_sat_ok inv), inv_on_keyval_sp; assumption. Qed.
Lemma inv_header_step ia st h t sp st' : inv st -> h <> [] -> on_header ia st h t sp = COk st' -> inv st'.
Proof. intros Hi Hne. apply (cres_sat_ok inv), on_header_ok; assumption. Qed.

Lemma doc_line_val st : inv st -> valP inv (doc_line st).
Proof. exact (doc_line_inv inv kv_good _ parse_keyval_val key_val inv_on_ws inv_keyval_step inv_header_step st). Qed.
Lemma document_val : valP inv document.
Proof.
  exact (document_inv inv kv_good _ parse_keyval_val key_val inv_on_ws inv_keyval_step inv_header_step inv_state_new).
Qed.

Section WithState.
  Variable st : pstate.
  Hypothesis Hinv : inv st.

  Lemma keyval_mono : mono (keyval st). Proof. unfold keyval. np. Qed.
  Lemma keyval_progress : progress (keyval st). Proof. unfold keyval. np. Qed.
  Lemma keyval_safe : safe (keyval st).
  Proof.
    unfold keyval. eapply safe_try_map; [np|apply parse_keyval_val|].
    intros [p [k v]] Hg. apply (lift_state_nopanic inv), inv_on_keyval_sp; assumption.
  Qed.

  Lemma header_syntax_mono ia : mono (header_syntax ia). Proof. unfold header_syntax. destruct ia; np. Qed.
  Lemma aot_open_ne : ARRAY_TABLE_OPEN <> []. Proof. discriminate. Qed.
  Local Hint Resolve aot_open_ne : np.
  Lemma header_syntax_progress ia : progress (header_syntax ia). Proof. unfold header_syntax. destruct ia; np. Qed.
  Lemma header_syntax_safe ia : safe (header_syntax ia). Proof. unfold header_syntax. destruct ia; np. Qed.
  Lemma header_mono ia : mono (header ia st).
  Proof. rewrite header_eq. pose proof (header_syntax_mono ia). np. Qed.
  Lemma header_progress ia : progress (header ia st).
  Proof. rewrite header_eq. pose proof (header_syntax_progress ia). np. Qed.
  (* state.rs: debug_assert!(!path.is_empty()) — the header's key path comes from `key` *)
  Lemma header_safe ia : safe (header ia st).
  Proof.
    rewrite header_eq. eapply safe_try_map; [apply header_syntax_safe|apply (header_syntax_val _ key_val)|].
    intros [[h sp] t] Hne. apply (lift_state_nopanic inv), on_header_ok; assumption.
  Qed.

  Lemma table_mono : mono (table st).
  Proof. unfold table. pose proof header_mono. np. Qed.
  Lemma table_progress : progress (table st).
  Proof. unfold table. pose proof header_progress. np. Qed.
  Lemma table_safe : safe (table st).
  Proof. unfold table. pose proof header_safe. np. Qed.

  Lemma parse_comment_mono : mono (parse_comment st). Proof. unfold parse_comment. np. Qed.
  Lemma parse_comment_progress : progress (parse_comment st). Proof. unfold parse_comment. np. Qed.
  Lemma parse_comment_safe : safe (parse_comment st). Proof. unfold parse_comment. np. Qed.
  Lemma parse_ws_mono : mono (parse_ws st). Proof. unfold parse_ws. np. Qed.
  Lemma parse_ws_safe : safe (parse_ws st). Proof. unfold parse_ws. np. Qed.
  Lemma parse_newline_mono : mono (parse_newline st). Proof. unfold parse_newline. np. Qed.
  Lemma parse_newline_progress : progress (parse_newline st). Proof. unfold parse_newline. np. Qed.
  Lemma parse_newline_safe : safe (parse_newline st). Proof. unfold parse_newline. np. Qed.

  Lemma line_p_mono b : mono (line_p st b).
  Proof.
    unfold line_p. pose proof parse_comment_mono. pose proof table_mono. pose proof parse_newline_mono.
    pose proof keyval_mono. np.
  Qed.
  Lemma line_p_progress b : progress (line_p st b).
  Proof.
    unfold line_p. pose proof parse_comment_progress. pose proof table_progress.
    pose proof parse_newline_progress. pose proof keyval_progress. np.
  Qed.
  Lemma line_p_safe b : safe (line_p st b).
  Proof.
    unfold line_p. pose proof parse_comment_safe. pose proof table_safe. pose proof parse_newline_safe.
    pose proof keyval_safe. np.
  Qed.
End WithState.

Lemma doc_line_mono st : mono (doc_line st).
Proof.
  rewrite doc_line_unfold. apply monoC_bind; [np|]. intro b. apply monoC_bind; [apply line_p_mono|].
  intro st1. apply parse_ws_mono.
Qed.
Lemma doc_line_progress st : progress (doc_line st).
Proof.
  rewrite doc_line_unfold. apply progress_bind_r; [np|]. intro b. apply progress_bind_l; [apply line_p_progress|].
  intro st1. apply parse_ws_mono.
Qed.
Lemma doc_line_safe st : inv st -> safe (doc_line st).
Proof.
  intro Hi. rewrite doc_line_unfold. apply safe_bind; [np|np|np|]. intro b.
  apply safe_bind; [np|apply line_p_mono|apply line_p_safe, Hi|]. intro st1. apply parse_ws_safe.
Qed.

(* ---- the document loop -------------------------------------------------------------------------------- *)
Lemma doc_loop_mono : forall fuel st i st' i', doc_loop fuel st i = Ok st' i' -> ext anyb i i'.
Proof.
  induction fuel as [|f IH]; intros st i st' i' H; cbn [doc_loop] in H; [discriminate|].
  destruct (doc_line st i) as [s1 i1|? ?|? ?|?] eqn:E; try discriminate.
  - destruct (Nat.eqb _ _); [discriminate|]. eapply ext_trans; [eapply doc_line_mono, E|eapply IH, H].
  - inversion H; subst. apply ext_refl.
Qed.
(* termination of `repeat(0.., ...)` over the lines of a document, and no winnow assertion *)
Lemma doc_loop_safe : forall fuel st i, inv st -> length (rest i) < fuel -> nopanic (doc_loop fuel st i).
Proof.
  induction fuel as [|f IH]; intros st i Hi L; [lia|]. cbn [doc_loop].
  pose proof (doc_line_safe st Hi i I) as S0. destruct (doc_line st i) as [s1 i1|? ?|? ?|?] eqn:E; auto.
  pose proof (doc_line_progress st _ _ _ E) as G.
  destruct (Nat.eqb _ _) eqn:Q; [apply Nat.eqb_eq in Q; lia|].
  apply IH; [eapply doc_line_val; eauto | lia].
Qed.

Lemma doc_loop_p_mono st : mono (doc_loop_p st).
Proof. intros i a i' H. eapply doc_loop_mono, H. Qed.
Lemma doc_loop_p_safe st : inv st -> safe (doc_loop_p st).
Proof. intros Hi i _. apply doc_loop_safe; [exact Hi|lia]. Qed.

Lemma document_safe : safe document.
Proof.
  rewrite document_unfold. apply safe_bind; [np|np|np|]. intros _.
  eapply safe_bind_val; [np|apply parse_ws_mono|apply parse_ws_safe|apply (on_ws_inv inv inv_on_ws), inv_state_new|].
  intros st Hi. apply safe_bind; [np|apply doc_loop_p_mono|apply doc_loop_p_safe, Hi|]. intro st'. np.
Qed.

(* ---- entry points ---------------------------------------------------------------------------------------- *)
Lemma parse_all_done {A} (p : parser A) s a : parse_all p s = Done a -> exists i, p (new_input s) = Ok a i.
Proof.
  unfold parse_all, bind. destruct (p (new_input s)) as [x i|? ?|? ?|?]; try discriminate.
  unfold eof. destruct (rest i); [|discriminate]. cbn [ret]. intro H; inversion H; subst. eauto.
Qed.

Lemma lift_outcome_nopanic {A} (p : parser A) s st :
  safe p -> lift_outcome (parse_all p s) <> PPanic st.
Proof.
  intros H E. pose proof (parse_all_nopanic p s (H _ I)) as N.
  destruct (parse_all p s); try discriminate. inversion E; subst. eapply N. reflexivity.
Qed.

Theorem parse_document_total s st : parse_document s <> PPanic st.
Proof.
  unfold parse_document. pose proof (parse_all_nopanic document s (document_safe _ I)) as N.
  destruct (parse_all document s) as [fin| |p] eqn:E; [|discriminate|exfalso; eapply N; reflexivity].
  apply parse_all_done in E as [i E]. apply document_val in E. apply inv_fin in E.
  destruct (finalize_table fin); cbn [fin_post] in E; [discriminate|discriminate|contradiction].
Qed.

Theorem parse_value_total s st : parse_value_raw s <> PPanic st.
Proof.
  unfold parse_value_raw. intro H. apply (proj1 (lift_eoi_panic _ _ _)) in H. revert H. apply lift_outcome_nopanic, value_safe.
Qed.
Theorem parse_key_total s st : parse_key s <> PPanic st.
Proof.
  unfold parse_key. intro H. apply (proj1 (lift_eoi_panic _ _ _)) in H. revert H. apply lift_outcome_nopanic, simple_key_safe.
Qed.
Theorem parse_key_path_total s st : parse_key_path s <> PPanic st.
Proof.
  unfold parse_key_path. intro H. apply (proj1 (lift_eoi_panic _ _ _)) in H. revert H. apply lift_outcome_nopanic, key_safe.
Qed.

(* the state machine on reachable states, stated on its own *)
Theorem state_machine_total :
  inv state_new
  /\ (forall st sp, inv st -> inv (on_ws st sp))
  /\ (forall st path k v, inv st ->
        match on_keyval_sp st path k (IValue v) with COk st' => inv st' | CErr _ => True | CPanic _ => False end)
  /\ (forall ia st path trailing sp, inv st -> path <> [] ->
        match on_header ia st path trailing sp with COk st' => inv st' | CErr _ => True | CPanic _ => False end)
  /\ (forall st, inv st -> match finalize_table st with CPanic _ => False | _ => True end).
Proof.
  refine (conj _ (conj _ (conj _ (conj _ _)))).
  - exact inv_state_new.
  - intros. apply inv_on_ws. assumption.
  - intros. apply inv_on_keyval_sp; [assumption|reflexivity].
  - intros. apply on_header_ok; assumption.
  - intros st Hi. apply inv_fin in Hi. destruct (finalize_table st); cbn [fin_post] in Hi; auto.
Qed.
