(* Proofs/MacroStmt.v — C19: the case analysis on a supported value, done once for a place described as in
   Proofs/MacroCtx.v (Section ValueCases, instantiated for @toplevel, @table and @array below). *)
From TV Require Import Base.Prelude Model.Numbers Model.Macro Spec.MacroSpec.
From TV Require Import Proofs.MacroMatch Proofs.MacroRules Proofs.MacroTails Proofs.MacroEval Proofs.MacroAux Proofs.MacroCtx.

(* ---- the token the macro finally hands to @value for a signed scalar ---- *)
Definition signed_tok (sg : sign) (t : tt) : tt :=
  match sg with
  | SgNone => t
  | SgPlus => TGroup DParen [t]
  | SgMinus => TGroup DParen [TPunct c_minus; t]
  end.

(* ---- the tokens the macro hands to Datetime::from_str: `T` for a space ---- *)
Definition sec_lit (ss : bytes) (fr : option bytes) (o : dtoff) : lit :=
  let suf := match o with OZ c => [c] | _ => [] end in
  match fr with
  | Some f => LFloat (ss ++ [c_dot] ++ f ++ suf)
  | None => LInt (ss ++ suf)
  end.
Lemma sec_tok_lit : forall ss fr o, sec_tok ss fr o = TLit (sec_lit ss fr o).
Proof. intros ss [f|] o; reflexivity. Qed.

Definition dt_norm_toks (d : dtsp) : list tt :=
  match ds_date d, ds_time d with
  | Some (y, m, dd), Some ((hh, mi, ss, fr) as t) =>
    if byte_eqb (ds_delim d) c_space
    then [TLit (LInt y); TPunct c_minus; TLit (LInt m); TPunct c_minus; TLit (LInt dd); TIdent id_T]
         ++ time_toks [TLit (LInt hh)] t (ds_off d)
    else dt_toks d
  | _, _ => dt_toks d
  end.

(* what evaluating the value means for the macro *)
Definition val_ev (v : aval) (m : mval) (k : nat) : Prop :=
  match v with
  | ADt d => datetime_value (dt_norm_toks d) = EOk m
  | AInt sg t => Ev (MTab []) (value_in (signed_tok sg (TLit (LInt t)))) (EOk m) k
  | AFloat sg t => Ev (MTab []) (value_in (signed_tok sg (TLit (LFloat t)))) (EOk m) k
  | ASpecial sg nan => Ev (MTab []) (value_in (signed_tok sg (TIdent (if nan then id_nan else id_inf)))) (EOk m) k
  | AStr _ | ABool _ | AArr _ _ | AInl _ =>
    match val_toks v with [t] => Ev (MTab []) (value_in t) (EOk m) k | _ => False end
  end.

(* the tokens of a supported date-time are one of the six skeletons *)
Lemma dt_toks_skel : forall d, dt_ok d = true -> exists k e, dt_skel (dt_toks d) (dt_norm_toks d) k e.
Proof.
  intros [date delim time off] Hok.
  unfold dt_ok in Hok. unfold dt_norm_toks, dt_toks. cbn [ds_date ds_time ds_delim ds_off] in *.
  destruct date as [[[y m] dd]|]; destruct time as [[[[hh mi] ss] fr]|]; try discriminate Hok.
  - apply andb_true_iff in Hok as [_ Hoff]. unfold time_toks. rewrite sec_tok_lit.
    destruct off as [|c|neg oh om]; cbn [off_toks off_ok] in *;
      try (apply andb_true_iff in Hoff as [Hoff _]; apply andb_true_iff in Hoff as [-> _]);
      destruct (byte_eqb delim c_space); rewrite ?app_nil_r; do 2 eexists.
    + apply (SkDtS (LInt y) (LInt m) (LInt dd) (LInt hh) (LInt mi)).
    + apply (SkDtT (LInt y) (LInt m) _ (LInt mi)).
    + apply (SkDtS (LInt y) (LInt m) (LInt dd) (LInt hh) (LInt mi)).
    + apply (SkDtT (LInt y) (LInt m) _ (LInt mi)).
    + apply (SkOdtS (LInt y) (LInt m) (LInt dd) (LInt hh) (LInt mi) _ (LInt oh) (LInt om)).
    + apply (SkOdtT (LInt y) (LInt m) _ (LInt mi) _ (LInt oh) (LInt om)).
  - do 2 eexists. apply (SkDate (LInt y) (LInt m) (LInt dd)).
  - apply andb_true_iff in Hok as [_ Hoff]. destruct off; try discriminate Hoff.
    unfold time_toks. rewrite sec_tok_lit. cbn [off_toks]. rewrite app_nil_r.
    do 2 eexists. apply (SkTime (LInt hh) (LInt mi)).
Qed.

Section ValueCases.
Variables (comma : bool) (E : env) (cur : mval) (inp : list tt -> list tt) (dtinp : list tt -> list tt -> list tt)
          (again dtq : list tpl -> list tpl) (g : body) (after : mval -> option mval) (next : list tt -> list tt).
Let tls := tails (fun v => BInvoke (again v)) (fun q => BInvoke (dtq q)) g.
Let full (e : env) (R : list tt) : env := E ++ e ++ [(Vrest, tts_bnd R)].
Hypothesis E_dom : forallb (fun xb => var_mem (fst xb) ctx_vars) E = true.
Hypothesis C_first : forall Y b e R, Y <> [] -> first_tail (sfxP comma) tls Y = Some (b, e, R) ->
  first_match rules (inp Y) = Some (b, full e R).
Hypothesis C_again : forall v e R, lookup Vrest e = None ->
  transcribe_seq (again v) (full e R) = inp (transcribe_seq v (full e R) ++ sfxT comma ++ R).
Hypothesis C_dtq : forall q e R, lookup Vrest e = None ->
  transcribe_seq (dtq q) (full e R) = dtinp (transcribe_seq q (full e R)) R.
Hypothesis I_generic : forall t R valm cur' res n1 n2, is_plain t = true -> follow_ok comma R = true ->
  Ev (MTab []) (value_in t) (EOk valm) n1 -> after valm = Some cur' -> Ev cur' (next R) res n2 ->
  Ev cur (inp (t :: sfxT comma ++ R)) res (S (Nat.max n1 n2)).
Hypothesis I_dt : forall dts R valm cur' res n, dts <> [] ->
  datetime_value dts = EOk valm -> after valm = Some cur' -> Ev cur' (next R) res n -> Ev cur (dtinp dts R) res (S n).

(* `- t` / `+ t` is re-submitted as `(-t)` / `(t)` *)
Lemma ctx_minus : forall t R res n,
  Ev cur (inp (TGroup DParen [TPunct c_minus; t] :: sfxT comma ++ R)) res n ->
  Ev cur (inp (TPunct c_minus :: t :: sfxT comma ++ R)) res (S n).
Proof.
  intros t R res n H. eapply Ev_invoke; [apply C_first; [discriminate|exact (sel_minus _ (fun q => BInvoke (dtq q)) g comma t R)]|].
  rewrite C_again by reflexivity. unfold transcribe_seq, full. cbn [flat_map transcribe Q].
  rewrite (env_skip E E_dom) by reflexivity. exact H.
Qed.

Lemma ctx_plus : forall t R res n,
  Ev cur (inp (TGroup DParen [t] :: sfxT comma ++ R)) res n -> Ev cur (inp (TPunct c_plus :: t :: sfxT comma ++ R)) res (S n).
Proof.
  intros t R res n H. eapply Ev_invoke; [apply C_first; [discriminate|exact (sel_plus _ (fun q => BInvoke (dtq q)) g comma t R)]|].
  rewrite C_again by reflexivity. unfold transcribe_seq, full. cbn [flat_map transcribe Q].
  rewrite (env_skip E E_dom) by reflexivity. exact H.
Qed.

Lemma ctx_signed : forall sg t R valm cur' res k n, is_plain t = true -> follow_ok comma R = true ->
  Ev (MTab []) (value_in (signed_tok sg t)) (EOk valm) k -> after valm = Some cur' -> Ev cur' (next R) res n ->
  Ev cur (inp ((sign_toks sg ++ [t]) ++ sfxT comma ++ R)) res (S (S (Nat.max k n))).
Proof.
  intros [| |] t R valm cur' res k n Ht HR Hv Ha Hn; cbn [sign_toks signed_tok app] in *.
  - eapply Ev_mono; [eapply I_generic; eassumption|lia].
  - apply ctx_plus. eapply I_generic; try eassumption. reflexivity.
  - apply ctx_minus. eapply I_generic; try eassumption. reflexivity.
Qed.

(* a date-time is re-submitted to the @...datetime helper, `T` inserted for a space *)
Lemma ctx_datetime : forall d R valm cur' res n, dt_ok d = true -> follow_ok comma R = true ->
  datetime_value (dt_norm_toks d) = EOk valm -> after valm = Some cur' -> Ev cur' (next R) res n ->
  Ev cur (inp (dt_toks d ++ sfxT comma ++ R)) res (S (S n)).
Proof.
  intros d R valm cur' res n Hok HR Hv Ha Hn. destruct (dt_toks_skel d Hok) as [k [e Hsk]].
  destruct (skel_facts _ _ _ _ Hsk) as [[l [X HX]] [_ [HN He]]].
  eapply Ev_invoke; [apply C_first; [rewrite HX; discriminate|exact (sel_skel _ _ _ comma _ _ _ _ R Hsk HR)]|].
  rewrite (C_dtq _ _ _ He). unfold full. rewrite (skel_transcribe E E_dom _ _ _ _ _ Hsk).
  eapply I_dt; eassumption.
Qed.

(* every supported value, in this place *)
Theorem ctx_value : forall v R m cur' res k n, val_ok v = true -> follow_ok comma R = true ->
  val_ev v m k -> after m = Some cur' -> Ev cur' (next R) res n ->
  Ev cur (inp (val_toks v ++ sfxT comma ++ R)) res (S (S (Nat.max k n))).
Proof.
  intros v R m cur' res k n Hok HR Hv Ha Hn.
  destruct v as [s|sg t|sg t|sg nan|b|d|l tr|ps]; cbn [val_ev val_toks] in *;
    try (eapply (ctx_signed SgNone); try eassumption; reflexivity);
    try (eapply ctx_signed; try eassumption; reflexivity).
  eapply Ev_mono; [eapply ctx_datetime; eassumption|lia].
Qed.

End ValueCases.

(* ---- the three instances ---- *)
Theorem top_value : forall r cp p cur v R m cur' res k n,
  ident_frag_ok r = true -> path_ok p = true -> val_ok v = true -> rest_ok R = true ->
  val_ev v m k -> insert_toml cur (cp ++ path_strings p) m = Some cur' ->
  Ev cur' (top_in r (List.map path_tok cp) R) res n ->
  Ev cur (top_in r (List.map path_tok cp) (key_toks p ++ [TPunct c_eq] ++ val_toks v ++ R)) res (S (S (Nat.max k n))).
Proof.
  intros r cp p cur v R m cur' res k n Hr Hp Hv HR Hev Ha Hn.
  rewrite key_toks_dot.
  exact (ctx_value false (E_top r (List.map path_tok cp) (List.map seg_parts p)) cur (top_inp r cp p) (top_dtinp r cp p)
           top_again top_dt (BInsert true top_next) (top_after cp p cur) (top_in r (List.map path_tok cp)) eq_refl
           (fun Y b e R _ => top_first r cp p Hr Hp Y b e R) (fun v e R He => tr_top_again r _ _ e R He v)
           (fun q e R He => tr_top_dt r _ _ e R He q) (top_generic r cp p cur Hr Hp) (top_helper r cp p cur Hr Hp)
           v R m cur' res k n Hv HR Hev Ha Hn).
Qed.

Theorem tab_value : forall r p cur v R m cur' res k n,
  ident_frag_ok r = true -> path_ok p = true -> val_ok v = true -> comma_rest_ok R = true ->
  val_ev v m k -> insert_toml cur (path_strings p) m = Some cur' ->
  Ev cur' (st_in id_table r R) res n ->
  Ev cur (st_in id_table r (key_toks p ++ [TPunct c_eq] ++ val_toks v ++ TPunct c_comma :: R)) res (S (S (Nat.max k n))).
Proof.
  intros r p cur v R m cur' res k n Hr Hp Hv HR Hev Ha Hn.
  rewrite key_toks_dot.
  exact (ctx_value true (E_tab r (List.map seg_parts p)) cur (tab_inp r p) (tab_dtinp r p)
           tab_again tab_dt (BInsert false tab_next) (tab_after p cur) (st_in id_table r) eq_refl
           (fun Y b e R _ => tab_first r p Hr Hp Y b e R) (fun v e R He => tr_tab_again r _ e R He v)
           (fun q e R He => tr_tab_dt r _ e R He q) (tab_generic r p cur Hr Hp)
           (fun dts R valm cur' res n _ => tab_helper r p cur Hr Hp dts R valm cur' res n)
           v R m cur' res k n Hv HR Hev Ha Hn).
Qed.

Theorem arr_value : forall r l v R m res k n,
  ident_frag_ok r = true -> val_ok v = true -> comma_rest_ok R = true ->
  val_ev v m k -> Ev (MArr (l ++ [m])) (st_in id_array r R) res n ->
  Ev (MArr l) (st_in id_array r (val_toks v ++ TPunct c_comma :: R)) res (S (S (Nat.max k n))).
Proof.
  intros r l v R m res k n Hr Hv HR Hev Hn.
  exact (ctx_value true (E_arr r) (MArr l) (st_in id_array r) (arr_dtinp r)
           arr_again arr_dt (BArrPush arr_next) (arr_after l) (st_in id_array r) eq_refl
           (arr_first r Hr) (fun v e R He => tr_arr_again r e R He v)
           (fun q e R He => tr_arr_dt r e R He q) (arr_generic r l Hr)
           (fun dts R valm cur' res n _ => arr_helper r l Hr dts R valm cur' res n)
           v R m (MArr (l ++ [m])) res k n Hv HR Hev eq_refl Hn).
Qed.
