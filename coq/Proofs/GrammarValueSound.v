(* Proofs/GrammarValueSound.v — C01/C02 layer L2, values, soundness: whatever `value_` accepts is
   a `val` of the grammar (Spec/Syntax.v val_tok), the tree value carries exactly the data the
   abstract value denotes, every inline table in it obeys the definition rules, and the
   nesting / number limits hold (`vrel`).  Induction on the fuel of the value / array /
   inline-table knot; `separated` is read through Proofs/GrammarSep.v. *)
From TV Require Import Base.Prelude Base.Winnow Gen.Consts Spec.Abnf Spec.Lex Spec.Syntax.
From TV Require Import Model.Trivia Model.Strings Model.Datetime Model.Numbers Model.Tree Model.Parse.
From TV Require Import Proofs.NoPanicBase Proofs.NoPanicValue Proofs.NumbersRT_Value.

From TV Require Import Proofs.LexEquivBase Proofs.LexEquivTrivia Proofs.LexEquivInt Proofs.LexEquivFloat
                       Proofs.LexEquivString Proofs.LexEquivDatetime
                       Proofs.LexEquivKey Proofs.GrammarSep Proofs.GrammarBase Proofs.GrammarValueBase
                       Proofs.GrammarValueTok.
Require Import Lia ZifyBool ZifyN ZifyNat.

Lemma mono_shrinking {A} (p : parser A) : mono p -> shrinking p.
Proof. intros Hp i a i' H. apply (ext_len _ _ _ (Hp _ _ _ H)). Qed.

Lemma span_ws_inv i sp i' : span_ ws i = Ok sp i' -> exists w, ws_tok w /\ splits i w i' /\ stops wschar (rest i').
Proof. intro H. apply span_inv in H as (w & H & _). apply ws_sound in H. eauto. Qed.

Lemma span_wscn_inv i sp i' : span_ ws_comment_newline i = Ok sp i' -> exists w, wscn_tok w /\ splits i w i'.
Proof. intro H. apply span_inv in H as (u & H & _). apply wscn_sound in H. exact H. Qed.

(* check_recursion: the sub-parser runs one level deeper and hands the counter back *)
Lemma check_recursion_splits {A} (p : parser A) i a i' : check_recursion p i = Ok a i' ->
  S (depth i) < LIMIT /\
  exists i2, p (set_depth (S (depth i)) i) = Ok a i2 /\
             forall t, splits (set_depth (S (depth i)) i) t i2 -> splits i t i'.
Proof.
  intro H. split; [apply (DepthBase.check_recursion_inside _ _ _ _ H)|].
  apply check_recursion_inv in H as (i2 & d & E & D & ->). exists i2. split; [exact E|].
  intros t [R ->]. destruct i as [s p0 d0]. unfold adv, advance, set_depth in *. cbn [rest pos depth] in *.
  injection D as <-. split; [exact R|reflexivity].
Qed.

Definition vsound_at (p : parser value) : Prop :=
  forall i v i', p i = Ok v i' -> exists t a, val_tok t a /\ splits i t i' /\ vrel (depth i) v a.

Section Sound.
  Variable vr : parser value.
  Hypothesis Hvr : vsound_at vr.

  (* ---- arrays ---------------------------------------------------------------------------------- *)
  Lemma array_value_sound i it i1 : array_value vr i = Ok it i1 ->
    exists w1 t a w2, wscn_tok w1 /\ val_tok t a /\ wscn_tok w2 /\ splits i (w1 ++ t ++ w2) i1 /\ irel (depth i) it a.
  Proof.
    unfold array_value. intro H.
    apply bind_inv in H as (pre & j1 & H1 & H). apply span_wscn_inv in H1 as (w1 & Hw1 & S1).
    apply bind_inv in H as (v & j2 & H2 & H). apply Hvr in H2 as (t & a & Ht & S2 & Hv).
    apply bind_inv in H as (suf & j3 & H3 & H). apply span_wscn_inv in H3 as (w2 & Hw2 & S3).
    apply ret_inv in H as [-> ->]. exists w1, t, a, w2. repeat (split; [assumption|]). split.
    - exact (splits_trans _ _ _ _ _ S1 (splits_trans _ _ _ _ _ S2 S3)).
    - eexists. split; [reflexivity|]. apply vrel_decorate. rewrite <- (splits_depth _ _ _ S1). exact Hv.
  Qed.

  Lemma array_value_shrinking : shrinking (array_value vr).
  Proof.
    apply splits_shrinking. intros i a i' H. apply array_value_sound in H as (w1 & t & x & w2 & _ & _ & _ & S & _). eauto.
  Qed.
  Lemma byte_shrinking x : shrinking (byte_ x).
  Proof. apply splits_shrinking. intros i a i' H. apply byte_inv in H as [_ S]. eauto. Qed.

  Lemma array_seps_sound i1 items i2 : seps (array_value vr) (byte_ ARRAY_SEP) i1 items i2 ->
    forall w1 t a w2 c, wscn_tok w1 -> val_tok t a -> wscn_tok w2 -> (c = [] \/ c = [x2c]) ->
    exists u l, array_values_tok (w1 ++ t ++ w2 ++ u ++ c) (a :: l) /\ splits i1 u i2
                /\ Forall2 (irel (depth i1)) items l.
  Proof.
    induction 1 as [i F|i x j E Hlt F|i x j it j2 items i3 E Hlt E2 Hle R IH]; intros w1 t a w2 c Hw1 Ht Hw2 Hc.
    - exists [], []. split; [apply av_last; assumption|]. split; [apply splits_nil|constructor].
    - exists [], []. split; [apply av_last; assumption|]. split; [apply splits_nil|constructor].
    - apply byte_inv in E as [_ S1]. apply array_value_sound in E2 as (w1' & t' & a' & w2' & Hw1' & Ht' & Hw2' & S2 & Hit).
      destruct (IH w1' t' a' w2' c Hw1' Ht' Hw2' Hc) as (u & l & Hav & S3 & HF).
      pose proof (splits_trans _ _ _ _ _ S1 S2) as S12.
      exists ([x2c] ++ (w1' ++ t' ++ w2') ++ u), (a' :: l). split; [|split].
      + replace (w1 ++ t ++ w2 ++ ([x2c] ++ (w1' ++ t' ++ w2') ++ u) ++ c)
          with (w1 ++ t ++ w2 ++ [x2c] ++ (w1' ++ t' ++ w2' ++ u ++ c)) by (rewrite <- !app_assoc; reflexivity).
        apply av_more; assumption.
      + exact (splits_trans _ _ _ _ _ S12 S3).
      + rewrite (splits_depth _ _ _ S1) in Hit. rewrite (splits_depth _ _ _ S12) in HF. constructor; assumption.
  Qed.

  Lemma array_values_sound i v i' : array_values vr i = Ok v i' ->
    exists body l items tr c dec sp,
      v = VArray items tr c dec sp /\ splits i body i' /\ Forall2 (irel (depth i)) items l
      /\ val_tok ([x5b] ++ body ++ [x5d]) (AArr l).
  Proof.
    unfold array_values. intro H. apply bind_inv in H as (c & j & H1 & H). apply peek_inv in H1 as [-> _].
    destruct c as [x|].
    - apply ret_inv in H as [-> ->]. exists [], [], [], REmpty, false, decor_default, None.
      split; [reflexivity|]. split; [apply splits_nil|]. split; [constructor|]. apply (v_array_empty [] wscn_nil).
    - apply bind_inv in H as (vals & j1 & H1 & H).
      apply bind_inv in H as (comma & j2 & H2 & H). apply bind_inv in H as (tr & j3 & H3 & H).
      apply span_wscn_inv in H3 as (w & Hw & S3). apply ret_inv in H as [-> ->].
      apply (separated0_inv _ _ _ _ _ array_value_shrinking (byte_shrinking _)) in H1
        as [(-> & -> & _) | (it & i1 & items & -> & E & R)].
      + apply ret_inv in H2 as [_ ->]. exists w, [], [], (raw_with_span tr), comma, decor_default, None.
        split; [reflexivity|]. split; [exact S3|]. split; [constructor|]. apply (v_array_empty w Hw).
      + apply pmap_inv in H2 as (o & H2 & _).
        assert (Hc : exists c, (c = [] \/ c = [x2c]) /\ splits j1 c j2).
        { apply opt_inv in H2 as [(x & -> & H2) | (-> & -> & _)].
          - apply byte_inv in H2 as [_ S]. exists [x2c]. auto.
          - exists []. split; [auto|apply splits_nil]. }
        destruct Hc as (c & Hc & S2).
        apply array_value_sound in E as (w1 & t & a & w2 & Hw1 & Ht & Hw2 & S1 & Hit).
        destruct (array_seps_sound _ _ _ R w1 t a w2 c Hw1 Ht Hw2 Hc) as (u & l & Hav & Su & HF).
        exists (((w1 ++ t ++ w2) ++ u ++ c) ++ w), (a :: l), (it :: items), (raw_with_span tr), comma, decor_default, None.
        split; [reflexivity|]. split; [|split].
        * exact (splits_trans _ _ _ _ _ (splits_trans _ _ _ _ _ S1 (splits_trans _ _ _ _ _ Su S2)) S3).
        * rewrite (splits_depth _ _ _ S1) in HF. constructor; assumption.
        * replace ([x5b] ++ (((w1 ++ t ++ w2) ++ u ++ c) ++ w) ++ [x5d])
            with ([x5b] ++ (w1 ++ t ++ w2 ++ u ++ c) ++ w ++ [x5d]) by (rewrite <- !app_assoc; reflexivity).
          apply v_array; assumption.
  Qed.

  Lemma array_sound i v i' : array vr i = Ok v i' ->
    exists t l items tr c dec sp,
      v = VArray items tr c dec sp /\ splits i t i' /\ Forall2 (irel (depth i)) items l /\ val_tok t (AArr l).
  Proof.
    unfold array. intro H. apply bind_inv in H as (x & j1 & H1 & H). apply byte_inv in H1 as [_ S1].
    apply bind_inv in H as (a & j2 & H2 & H). apply cut_err_inv in H2.
    apply array_values_sound in H2 as (body & l & items & tr & c & dec & sp & -> & S2 & HF & Hv).
    apply bind_inv in H as (y & j3 & H3 & H). apply context_inv, cut_err_inv, byte_inv in H3 as [_ S3].
    apply ret_inv in H as [-> ->]. exists ([x5b] ++ body ++ [x5d]), l, items, tr, c, dec, sp.
    split; [reflexivity|]. split; [|split; [|exact Hv]].
    - exact (splits_trans _ _ _ _ _ S1 (splits_trans _ _ _ _ _ S2 S3)).
    - rewrite (splits_depth _ _ _ S1) in HF. exact HF.
  Qed.

  (* ---- inline tables ------------------------------------------------------------------------------ *)
  Lemma inline_keyval_sound i x i1 : inline_keyval vr i = Ok x i1 ->
    exists w0 kt p w1 w2 t a w3,
      ws_tok w0 /\ key_tok kt p /\ ws_tok w1 /\ ws_tok w2 /\ val_tok t a /\ ws_tok w3
      /\ splits i (w0 ++ (kt ++ w1 ++ [x3d] ++ w2 ++ t) ++ w3) i1 /\ prel (depth i) x (p, a).
  Proof.
    rewrite inline_keyval_eq. intro H. apply bind_inv in H as (kp & j1 & H1 & H).
    apply key_sound in H1 as (w0 & kt & w1 & Hw0 & Hkt & Hw1 & S1 & _).
    apply bind_inv in H as ([[pre v] suf] & j2 & H2 & H). unfold inline_kv_rhs in H2.
    apply cut_err_inv in H2. apply bind_inv in H2 as (y & k1 & E1 & H2). apply context_inv, byte_inv in E1 as [_ Se].
    apply bind_inv in H2 as (pre' & k2 & E2 & H2). apply span_ws_inv in E2 as (w2 & Hw2 & S2 & _).
    apply bind_inv in H2 as (v' & k3 & E3 & H2). apply Hvr in E3 as (t & a & Ht & S3 & Hv).
    apply bind_inv in H2 as (suf' & k4 & E4 & H2). apply span_ws_inv in E4 as (w3 & Hw3 & S4 & _).
    apply ret_inv in H2 as [E ->]. injection E as -> -> ->.
    destruct (pop_key kp) as [[path k]|] eqn:Ep; [|discriminate]. apply ret_inv in H as [-> ->].
    exists w0, kt, (map k_key kp), w1, w2, t, a, w3. repeat (split; [assumption|]). split.
    - pose proof (splits_trans _ _ _ _ _ S1 (splits_trans _ _ _ _ _ Se (splits_trans _ _ _ _ _ S2 (splits_trans _ _ _ _ _ S3 S4)))) as S.
      rewrite <- !app_assoc in *. exact S.
    - split; cbn [fst snd]; [apply (pop_key_keys _ _ _ Ep)|]. eexists. split; [reflexivity|]. apply vrel_decorate.
      rewrite <- (splits_depth _ _ _ (splits_trans _ _ _ _ _ S1 (splits_trans _ _ _ _ _ Se S2))). exact Hv.
  Qed.

  Lemma inline_keyval_shrinking : shrinking (inline_keyval vr).
  Proof.
    apply splits_shrinking. intros i a i' H.
    apply inline_keyval_sound in H as (w0 & kt & p & w1 & w2 & t & x & w3 & _ & _ & _ & _ & _ & _ & S & _). eauto.
  Qed.

  Lemma inline_seps_sound i1 prs i2 : seps (inline_keyval vr) (byte_ INLINE_TABLE_SEP) i1 prs i2 ->
    forall kt p w1 w2 t a w3, key_tok kt p -> ws_tok w1 -> ws_tok w2 -> val_tok t a -> ws_tok w3 ->
    exists u l wl x, splits i1 x i2 /\ w3 ++ x = u ++ wl /\ ws_tok wl
                     /\ inline_keyvals_tok (kt ++ w1 ++ [x3d] ++ w2 ++ t ++ u) ((p, a) :: l)
                     /\ Forall2 (prel (depth i1)) prs l.
  Proof.
    induction 1 as [i F|i x j E Hlt F|i x j pr j2 prs i3 E Hlt E2 Hle R IH]; intros kt p w1 w2 t a w3 Hkt Hw1 Hw2 Ht Hw3.
    - exists [], [], w3, []. split; [apply splits_nil|]. split; [rewrite app_nil_r; reflexivity|]. split; [exact Hw3|].
      split; [rewrite app_nil_r; apply ik_last; assumption|constructor].
    - exists [], [], w3, []. split; [apply splits_nil|]. split; [rewrite app_nil_r; reflexivity|]. split; [exact Hw3|].
      split; [rewrite app_nil_r; apply ik_last; assumption|constructor].
    - apply byte_inv in E as [_ S1].
      apply inline_keyval_sound in E2 as (w0' & kt' & p' & w1' & w2' & t' & a' & w3' & Hw0' & Hkt' & Hw1' & Hw2' & Ht' & Hw3' & S2 & Hpr).
      destruct (IH kt' p' w1' w2' t' a' w3' Hkt' Hw1' Hw2' Ht' Hw3') as (u & l & wl & x' & Sx & Ex & Hwl & Hkv & HF).
      pose proof (splits_trans _ _ _ _ _ S1 S2) as S12.
      exists (w3 ++ [x2c] ++ w0' ++ (kt' ++ w1' ++ [x3d] ++ w2' ++ t' ++ u)), ((p', a') :: l), wl,
             (([x2c] ++ w0' ++ (kt' ++ w1' ++ [x3d] ++ w2' ++ t') ++ w3') ++ x').
      split; [exact (splits_trans _ _ _ _ _ S12 Sx)|]. split; [|split; [exact Hwl|split]].
      + rewrite <- !app_assoc. rewrite Ex. reflexivity.
      + apply ik_more; assumption.
      + rewrite (splits_depth _ _ _ S1) in Hpr. rewrite (splits_depth _ _ _ S12) in HF. constructor; assumption.
  Qed.

  Lemma ws_tok_app a b : ws_tok a -> ws_tok b -> ws_tok (a ++ b).
  Proof. unfold ws_tok, all. intros Ha Hb. rewrite forallb_app, Ha, Hb. reflexivity. Qed.

  Lemma inline_kvs_sound i pairs pre i' : inline_kvs vr i = Ok (pairs, pre) i' ->
    exists body kvs, splits i body i' /\ Forall2 (prel (depth i)) pairs kvs
                     /\ val_tok ([x7b] ++ body ++ [x7d]) (AInl kvs).
  Proof.
    unfold inline_kvs. intro H. apply bind_inv in H as (kv & j1 & H1 & H).
    apply bind_inv in H as (sp & j2 & H2 & H). apply span_ws_inv in H2 as (w & Hw & S2 & _).
    apply ret_inv in H as [E ->]. injection E as -> _.
    apply (separated0_inv _ _ _ _ _ inline_keyval_shrinking (byte_shrinking _)) in H1
      as [(-> & -> & _) | (pr & i1 & prs & -> & E & R)].
    - exists w, []. split; [exact S2|]. split; [constructor|]. apply (v_inline_empty w Hw).
    - apply inline_keyval_sound in E as (w0 & kt & p & w1 & w2 & t & a & w3 & Hw0 & Hkt & Hw1 & Hw2 & Ht & Hw3 & S1 & Hpr).
      destruct (inline_seps_sound _ _ _ R kt p w1 w2 t a w3 Hkt Hw1 Hw2 Ht Hw3) as (u & l & wl & x & Sx & Ex & Hwl & Hkv & HF).
      exists (((w0 ++ (kt ++ w1 ++ [x3d] ++ w2 ++ t) ++ w3) ++ x) ++ w), ((p, a) :: l).
      split; [exact (splits_trans _ _ _ _ _ (splits_trans _ _ _ _ _ S1 Sx) S2)|]. split.
      + rewrite (splits_depth _ _ _ S1) in HF. constructor; assumption.
      + replace ([x7b] ++ (((w0 ++ (kt ++ w1 ++ [x3d] ++ w2 ++ t) ++ w3) ++ x) ++ w) ++ [x7d])
          with ([x7b] ++ w0 ++ (kt ++ w1 ++ [x3d] ++ w2 ++ t ++ u) ++ (wl ++ w) ++ [x7d]).
        * apply v_inline; [exact Hw0|exact Hkv|apply ws_tok_app; assumption].
        * assert (E2 : forall z, w3 ++ x ++ z = u ++ wl ++ z) by (intro z; rewrite !app_assoc, Ex; reflexivity).
          rewrite <- !app_assoc. rewrite E2. reflexivity.
  Qed.

  Lemma inline_table_sound i v i' : inline_table vr i = Ok v i' ->
    forall d0, depth i = S d0 -> S d0 < LIMIT ->
    exists t kvs, splits i t i' /\ val_tok t (AInl kvs) /\ vrel d0 v (AInl kvs).
  Proof.
    rewrite inline_table_eq. intros H d0 Hd Hlim. apply bind_inv in H as (x & j1 & H1 & H). apply byte_inv in H1 as [_ S1].
    apply bind_inv in H as (tv & j2 & H2 & H). apply cut_err_inv in H2. unfold inline_body in H2.
    apply try_map_inv in H2 as ([pairs pre] & H2 & Htm).
    apply inline_kvs_sound in H2 as (body & kvs & S2 & HF & Hv).
    apply bind_inv in H as (y & j3 & H3 & H). apply context_inv, cut_err_inv, byte_inv in H3 as [_ S3].
    apply ret_inv in H as [-> ->]. exists ([x7b] ++ body ++ [x7d]), kvs.
    split; [exact (splits_trans _ _ _ _ _ S1 (splits_trans _ _ _ _ _ S2 S3))|]. split; [exact Hv|].
    rewrite (splits_depth _ _ _ S1), Hd in HF.
    destruct (prel_ipairs _ _ _ HF) as (l & -> & Hl).
    apply (inline_bridge_sound (S d0) l kvs Hl d0 pre tv eq_refl Hlim Htm).
  Qed.

  (* ---- scalars ------------------------------------------------------------------------------------- *)
  Lemma scalar_sound {A} (p : parser A) (mk : A -> scalar) (tok : bytes -> aval -> Prop) :
    (forall i x i', p i = Ok x i' -> exists t a, tok t a /\ splits i t i' /\ abs_scalar (mk x) = den a
                                                 /\ aval_ok a = true /\ forall d, within d a = true) ->
    (forall t a, tok t a -> val_tok t a) ->
    vsound_at (pmap (fun x => scalar_value (mk x)) p).
  Proof.
    intros Hp Hv i v i' H. apply pmap_inv in H as (x & H & ->). apply Hp in H as (t & a & Ht & S & E & Hok & Hwi).
    exists t, a. split; [apply Hv, Ht|]. split; [exact S|]. apply vrel_scalar; auto.
  Qed.

  Ltac fin_scalar :=
    split; [eexists; split; [reflexivity|eassumption]|]; split; [eassumption|];
    split; [reflexivity|]; split; [reflexivity|].

  Lemma string_arm_sound : vsound_at (pmap (fun s => scalar_value (SString s)) string_).
  Proof.
    apply (scalar_sound string_ SString (fun t a => exists s, a = AStr s /\ string_tok t s)).
    - intros i x i' H. apply string_sound in H as (t & Ht & S). exists t, (AStr x). fin_scalar. reflexivity.
    - intros t a (s & -> & H). apply v_string, H.
  Qed.

  Lemma integer_arm_sound : vsound_at (pmap (fun z => scalar_value (SInt z)) integer).
  Proof.
    apply (scalar_sound integer SInt (fun t a => exists z, a = AInt z /\ integer_tok t z)).
    - intros i x i' H. apply integer_sound in H as (t & Ht & S & Hz). exists t, (AInt x). fin_scalar. intro d. exact Hz.
    - intros t a (z & -> & H). apply v_integer, H.
  Qed.

  Lemma finite_within d f : finite f -> within d (AFloat f) = true.
  Proof. destruct f as [n|n|n m e]; try reflexivity. cbn [finite within]. intros ->. reflexivity. Qed.

  Lemma float_arm_sound : vsound_at (pmap (fun f => scalar_value (SFloat f)) float).
  Proof.
    apply (scalar_sound float SFloat (fun t a => exists f, a = AFloat f /\ float_tok t f)).
    - intros i x i' H. apply float_sound in H as (t & Ht & Hf & S). exists t, (AFloat x).
      fin_scalar. intro d. apply finite_within, Hf.
    - intros t a (f & -> & H). apply v_float, H.
  Qed.

  Lemma date_time_arm_sound : vsound_at (pmap (fun d => scalar_value (SDatetime d)) date_time).
  Proof.
    apply (scalar_sound date_time SDatetime (fun t a => exists d, a = ADate d /\ date_time_tok t d)).
    - intros i x i' H. apply date_time_sound in H as (t & Ht & S). exists t, (ADate x). fin_scalar. reflexivity.
    - intros t a (d & -> & H). apply v_date_time, H.
  Qed.

  Lemma true_arm_sound : vsound_at (pmap (fun v => scalar_value (SBool v)) true_).
  Proof.
    apply (scalar_sound true_ SBool (fun t a => exists b, a = ABool b /\ boolean_tok t b)).
    - intros i x i' H. apply true_sound in H as [-> S]. assert (Hb : boolean_tok t_true true) by (left; auto).
      exists t_true, (ABool true). fin_scalar. reflexivity.
    - intros t a (b & -> & H). apply v_boolean, H.
  Qed.
  Lemma false_arm_sound : vsound_at (pmap (fun v => scalar_value (SBool v)) false_).
  Proof.
    apply (scalar_sound false_ SBool (fun t a => exists b, a = ABool b /\ boolean_tok t b)).
    - intros i x i' H. apply false_sound in H as [-> S]. assert (Hb : boolean_tok t_false false) by (right; auto).
      exists t_false, (ABool false). fin_scalar. reflexivity.
    - intros t a (b & -> & H). apply v_boolean, H.
  Qed.

  Lemma inf_arm_sound : vsound_at (pmap (fun f => scalar_value (SFloat f)) inf).
  Proof.
    apply (scalar_sound inf SFloat (fun t a => exists f, a = AFloat f /\ float_tok t f)).
    - intros i x i' H. unfold inf in H. apply pvalue_inv in H as (-> & y & H). apply lit_inv in H as [_ S].
      assert (Hf : float_tok t_inf (FInf false)) by (apply (float_inf [] false); left; auto).
      exists t_inf, (AFloat (FInf false)). fin_scalar. reflexivity.
    - intros t a (f & -> & H). apply v_float, H.
  Qed.
  Lemma nan_arm_sound : vsound_at (pmap (fun f => scalar_value (SFloat f)) nan).
  Proof.
    apply (scalar_sound nan SFloat (fun t a => exists f, a = AFloat f /\ float_tok t f)).
    - intros i x i' H. unfold nan in H. apply pvalue_inv in H as (-> & y & H). apply lit_inv in H as [_ S].
      assert (Hf : float_tok t_nan (FNan false)) by (apply (float_nan [] false); left; auto).
      exists t_nan, (AFloat (FNan false)). fin_scalar. reflexivity.
    - intros t a (f & -> & H). apply v_float, H.
  Qed.

  Lemma vsound_context p : vsound_at p -> vsound_at (context p).
  Proof. intros Hp i v i' H. apply context_inv in H. apply Hp, H. Qed.
  Lemma vsound_alt p q : vsound_at p -> vsound_at q -> vsound_at (p <|> q).
  Proof. intros Hp Hq i v i' H. apply alt_inv in H as [H | [_ H]]; [apply Hp, H|apply Hq, H]. Qed.
  Lemma vsound_fail : vsound_at (context fail).
  Proof. intros i v i' H. apply context_inv in H. discriminate. Qed.

  Lemma array_arm_sound : vsound_at (check_recursion (array vr)).
  Proof.
    intros i v i' H. apply check_recursion_splits in H as (Hlim & i2 & H & Hs).
    apply array_sound in H as (t & l & items & tr & c & dec & sp & -> & S & HF & Hv). cbn [set_depth depth] in HF.
    exists t, (AArr l). split; [exact Hv|]. split; [apply Hs, S|]. apply vrel_array; assumption.
  Qed.

  Lemma inline_arm_sound : vsound_at (check_recursion (inline_table vr)).
  Proof.
    intros i v i' H. apply check_recursion_splits in H as (Hlim & i2 & H & Hs).
    destruct (inline_table_sound _ _ _ H (depth i) eq_refl Hlim) as (t & kvs & S & Hv & Hr).
    exists t, (AInl kvs). split; [exact Hv|]. split; [apply Hs, S|exact Hr].
  Qed.

  Lemma value_arm_sound b : vsound_at (value_arm vr b).
  Proof.
    unfold value_arm.
    repeat match goal with |- vsound_at (if ?c then _ else _) => destruct c end;
      first [ apply string_arm_sound | apply array_arm_sound | apply inline_arm_sound
            | apply vsound_fail
            | apply vsound_context; first [apply integer_arm_sound | apply float_arm_sound | apply true_arm_sound
                                          | apply false_arm_sound | apply inf_arm_sound | apply nan_arm_sound]
            | idtac ].
    unfold number_arm. apply vsound_alt; [apply date_time_arm_sound|]. apply vsound_alt; [apply float_arm_sound|apply integer_arm_sound].
  Qed.

  Lemma value_body_sound : vsound_at (value_body vr).
  Proof.
    intros i v i' H. pose proof H as H0. unfold value_body in H0. apply bind_inv in H0 as (b & j & H1 & _).
    apply context_inv, peek_inv in H1 as [_ (j' & H1)]. apply any_inv in H1 as [R _]. cbn [app] in R.
    rewrite (value_body_arm vr i b _ R) in H. apply (value_arm_sound b), H.
  Qed.

  Lemma value_step_sound : vsound_at (value_step vr).
  Proof.
    intros i v i' H. unfold value_step in H. apply pmap_inv in H as ([v0 sp] & H & ->).
    apply with_span_inv in H as (a & H & E). injection E as <- _. apply value_body_sound in H as (t & x & Ht & S & Hv).
    exists t, x. split; [exact Ht|]. split; [exact S|]. apply vrel_apply_raw, Hv.
  Qed.
End Sound.

Lemma value_f_sound n : vsound_at (value_f n).
Proof.
  induction n as [|n IH]; [intros i v i' H; discriminate|].
  change (value_f (S n)) with (value_step (value_f n)). apply value_step_sound, IH.
Qed.

Theorem value_sound i v i' : value_ i = Ok v i' ->
  exists t a, val_tok t a /\ splits i t i' /\ vrel (depth i) v a.
Proof. apply value_f_sound. Qed.
