(* Proofs/GrammarDocLine.v — C01/C02 layer L2, one line of a document: the text parsers of
   document.rs / table.rs (`parse_keyval`, the two table headers, comment lines, `line_trailing`,
   `line_ending`) against expression / keyval / std-table / array-table of Spec/Syntax.v.
   An `item` is an expression without its leading whitespace (the document loop reads that
   whitespace at the end of the previous iteration). *)
From TV Require Import Base.Prelude Base.Winnow Gen.Consts Spec.Abnf Spec.Lex Spec.Defs Spec.Syntax.
From TV Require Import Model.Trivia Model.Tree Model.Parse Model.Document.


From TV Require Import Proofs.LexEquivBase Proofs.LexEquivTrivia Proofs.LexEquivKey Proofs.GrammarSep
                       Proofs.GrammarValueBase Proofs.GrammarValueSound Proofs.GrammarValueComplete.
From TV Require Import Proofs.DocumentOps.
Require Import Lia ZifyBool ZifyN ZifyNat.

(* ---- items --------------------------------------------------------------------------------------- *)
Inductive item_tok : bytes -> list astmt -> Prop :=
| it_blank : item_tok [] []
| it_comment c : comment_tok c -> item_tok c []
| it_keyval t p a w c : keyval_tok t p a -> ws_tok w -> opt_comment c -> item_tok (t ++ w ++ c) [SKeyVal p a]
| it_std t p w c : std_table_tok t p -> ws_tok w -> opt_comment c -> item_tok (t ++ w ++ c) [SHeader p]
| it_arr t p w c : array_table_tok t p -> ws_tok w -> opt_comment c -> item_tok (t ++ w ++ c) [SArrHeader p].

Lemma expression_item e l : expression_tok e l <-> exists w e', e = w ++ e' /\ ws_tok w /\ item_tok e' l.
Proof.
  split.
  - intros [w c Hw Hc|w t p a w2 c Hw Ht Hw2 Hc|w t p w2 c Hw Ht Hw2 Hc|w t p w2 c Hw Ht Hw2 Hc].
    + exists w, c. split; [reflexivity|]. split; [exact Hw|]. destruct Hc as [-> | Hc]; [apply it_blank|apply it_comment, Hc].
    + exists w, (t ++ w2 ++ c). split; [reflexivity|]. split; [exact Hw|]. apply it_keyval; assumption.
    + exists w, (t ++ w2 ++ c). split; [reflexivity|]. split; [exact Hw|]. apply it_std; assumption.
    + exists w, (t ++ w2 ++ c). split; [reflexivity|]. split; [exact Hw|]. apply it_arr; assumption.
  - intros (w & e' & -> & Hw & [|c Hc|t p a w2 c Ht Hw2 Hc|t p w2 c Ht Hw2 Hc|t p w2 c Ht Hw2 Hc]).
    + apply ex_blank; [exact Hw|left; reflexivity].
    + apply ex_blank; [exact Hw|right; exact Hc].
    + apply ex_keyval; assumption.
    + apply ex_std_table; assumption.
    + apply ex_array_table; assumption.
Qed.

(* the end of a line: a newline, or the end of the text *)
Definition lend (le r : bytes) : Prop := newline_tok le \/ (le = [] /\ r = []).

(* what follows an item and its line end is empty or starts a new line *)
Lemma lend_stops_ws le r : lend le r -> stops wschar (le ++ r).
Proof. intros [H | [-> ->]]; [apply newline_stops_wschar, H|exact I]. Qed.
Lemma lend_stops_non_eol le r : lend le r -> stops non_eol (le ++ r).
Proof. intros [H | [-> ->]]; [apply newline_stops_non_eol, H|exact I]. Qed.
Lemma lend_stops_hash le r : lend le r -> stops (byte_eqb x23) (le ++ r).
Proof. intros [[-> | ->] | [-> ->]]; reflexivity. Qed.
Lemma lend_vstop le r : lend le r -> vstop (le ++ r).
Proof. intros [[-> | ->] | [-> ->]]; cbn [app vstop]; auto. Qed.

Lemma comment_head c : comment_tok c -> exists u, c = x23 :: u.
Proof. intros (u & -> & _). eauto. Qed.

Lemma opt_comment_lend_vstop c le r : opt_comment c -> lend le r -> vstop (c ++ le ++ r).
Proof. intros [-> | Hc] Hl; [cbn [app]; apply lend_vstop, Hl|]. destruct (comment_head c Hc) as (u & ->). cbn [app vstop]. auto. Qed.

Lemma opt_comment_lend_stops_ws c le r : opt_comment c -> lend le r -> stops wschar (c ++ le ++ r).
Proof. intros [-> | Hc] Hl; [cbn [app]; apply lend_stops_ws, Hl|]. destruct (comment_head c Hc) as (u & ->). reflexivity. Qed.

(* ---- line_ending, line_trailing ------------------------------------------------------------------ *)
Lemma line_ending_complete i le r : rest i = le ++ r -> lend le r -> line_ending i = Ok tt (adv le i).
Proof.
  intros H [Hn | [-> ->]]; unfold line_ending.
  - apply alt_ok. apply (newline_complete i le r H Hn).
  - cbn [app] in H. rewrite alt_fails_l.
    + rewrite adv_nil. apply eof_ok, H.
    + unfold newline. apply bind_fails, any_fails, H.
Qed.

Lemma line_ending_sound i u i' : line_ending i = Ok u i' -> exists le, splits i le i' /\ lend le (rest i').
Proof.
  unfold line_ending. intro H. apply alt_inv in H as [H | [_ H]].
  - apply newline_sound in H as (le & Hn & S). exists le. split; [exact S|left; exact Hn].
  - apply eof_inv in H as [-> R]. exists []. split; [apply splits_nil|right; auto].
Qed.

Lemma line_trailing_unfold i :
  line_trailing i = (a <- span_ (ws ;;; opt comment) ;; line_ending ;;; ret a) i.
Proof. reflexivity. Qed.

Lemma line_trailing_complete i w c le r :
  rest i = w ++ c ++ le ++ r -> ws_tok w -> opt_comment c -> lend le r ->
  exists sp, line_trailing i = Ok sp (adv (w ++ c ++ le) i).
Proof.
  intros H Hw Hc Hl. rewrite line_trailing_unfold.
  assert (E1 : exists o, (ws ;;; opt comment) i = Ok o (adv (w ++ c) i)).
  { rewrite (bind_ok _ _ _ _ _ (ws_complete i w _ H Hw (opt_comment_lend_stops_ws c le r Hc Hl))).
    pose proof (rest_adv w _ i H) as R1. destruct Hc as [-> | Hc].
    - rewrite app_nil_r. cbn [app] in R1. eexists. apply opt_fails, comment_fails. rewrite R1. apply lend_stops_hash, Hl.
    - eexists. rewrite <- adv_adv. apply opt_ok. apply (comment_complete _ c _ R1 Hc (lend_stops_non_eol le r Hl)). }
  destruct E1 as (o & E1). rewrite (bind_ok _ _ _ _ _ (span_ok _ _ _ _ E1)).
  assert (R2 : rest (adv (w ++ c) i) = le ++ r) by (apply rest_adv; rewrite H, <- app_assoc; reflexivity).
  rewrite (bind_ok _ _ _ _ _ (line_ending_complete _ le r R2 Hl)). rewrite adv_adv, <- app_assoc. eexists. reflexivity.
Qed.

Lemma line_trailing_sound i sp i' : line_trailing i = Ok sp i' ->
  exists w c le, ws_tok w /\ opt_comment c /\ splits i (w ++ c ++ le) i' /\ lend le (rest i').
Proof.
  rewrite line_trailing_unfold. intro H. apply bind_inv in H as (a & j1 & H1 & H).
  apply span_inv in H1 as (o & H1 & _). apply bind_inv in H1 as (w & k1 & Ew & H1). apply ws_sound in Ew as (Hw & S1 & _).
  apply bind_inv in H as (u & j2 & H2 & H). apply line_ending_sound in H2 as (le & S3 & Hl). apply ret_inv in H as [_ ->].
  apply opt_inv in H1 as [(x & -> & H1) | (-> & -> & _)].
  - apply comment_sound in H1 as (c & Hc & S2 & _). exists w, c, le. split; [exact Hw|]. split; [right; exact Hc|].
    split; [|exact Hl]. exact (splits_trans _ _ _ _ _ S1 (splits_trans _ _ _ _ _ S2 S3)).
  - exists w, [], le. split; [exact Hw|]. split; [left; reflexivity|]. split; [|exact Hl].
    cbn [app]. exact (splits_trans _ _ _ _ _ S1 S3).
Qed.

(* ---- key = value lines ---------------------------------------------------------------------------- *)
Lemma parse_keyval_unfold i :
  parse_keyval i =
  (kp <- key_ ;;
   '(pre, v, suf) <- cut_err (context (byte_ KEYVAL_SEP) ;;;
                              pre <- span_ ws ;; v <- value_ ;; suf <- context line_trailing ;; ret (pre, v, suf)) ;;
   match pop_key kp with
   | None => fun _ => Panic P_key_path_empty
   | Some (path, k) => ret (path, (k, IValue (value_decorate v (raw_with_span pre) (raw_with_span suf))))
   end) i.
Proof. reflexivity. Qed.

Lemma parse_keyval_sound i x i1 : parse_keyval i = Ok x i1 ->
  exists w0 t p a w c le,
    ws_tok w0 /\ keyval_tok t p a /\ ws_tok w /\ opt_comment c /\ splits i (w0 ++ (t ++ w ++ c) ++ le) i1
    /\ lend le (rest i1) /\ length p < LIMIT /\ prel (depth i) x (p, a).
Proof.
  rewrite parse_keyval_unfold. intro H. apply bind_inv in H as (kp & j1 & H1 & H).
  apply key_sound in H1 as (w0 & kt & w1 & Hw0 & Hkt & Hw1 & S1 & Hlen).
  apply bind_inv in H as ([[pre v] suf] & j2 & H2 & H).
  apply cut_err_inv in H2. apply bind_inv in H2 as (y & k1 & E1 & H2). apply context_inv, byte_inv in E1 as [_ Se].
  apply bind_inv in H2 as (pre' & k2 & E2 & H2). apply span_ws_inv in E2 as (w2 & Hw2 & S2 & _).
  apply bind_inv in H2 as (v' & k3 & E3 & H2). apply value_sound in E3 as (t & a & Ht & S3 & Hv).
  apply bind_inv in H2 as (suf' & k4 & E4 & H2). apply context_inv, line_trailing_sound in E4 as (w & c & le & Hw & Hc & S4 & Hl).
  apply ret_inv in H2 as [E ->]. injection E as -> -> ->.
  destruct (pop_key kp) as [[path k]|] eqn:Ep; [|discriminate]. apply ret_inv in H as [-> ->].
  exists w0, (kt ++ w1 ++ [x3d] ++ w2 ++ t), (map k_key kp), a, w, c, le.
  split; [exact Hw0|]. split; [exists kt, w1, w2, t; auto|]. split; [exact Hw|]. split; [exact Hc|]. split; [|split; [exact Hl|split]].
  - pose proof (splits_trans _ _ _ _ _ S1 (splits_trans _ _ _ _ _ Se (splits_trans _ _ _ _ _ S2 (splits_trans _ _ _ _ _ S3 S4)))) as S.
    rewrite <- !app_assoc in *. exact S.
  - rewrite map_length. exact Hlen.
  - split; cbn [fst snd]; [apply (pop_key_keys _ _ _ Ep)|]. eexists. split; [reflexivity|]. apply vrel_decorate.
    rewrite <- (splits_depth _ _ _ (splits_trans _ _ _ _ _ S1 (splits_trans _ _ _ _ _ Se S2))). exact Hv.
Qed.

Lemma key_tok_stops_ws t p r : key_tok t p -> stops wschar (t ++ r).
Proof. intro H. destruct (key_tok_head t p H) as (b & t' & -> & Hb & _). exact Hb. Qed.

(* what parse_keyval does on the text of a keyval: too long a key path makes `key` fail (softly: the
   caller decides), an ill-defined or too deep value makes `value` commit, anything else is read *)
Lemma parse_keyval_det i t p a w c le r :
  keyval_tok t p a -> ws_tok w -> opt_comment c -> rest i = (t ++ w ++ c) ++ le ++ r -> lend le r ->
  if Nat.ltb (length p) LIMIT
  then if vgoodb (depth i) a
       then exists x, parse_keyval i = Ok x (adv ((t ++ w ++ c) ++ le) i) /\ prel (depth i) x (p, a)
       else cuts parse_keyval i
  else fails parse_keyval i.
Proof.
  intros (kt & w1 & w2 & v & -> & Hkt & Hw1 & Hw2 & Hv) Hw Hc H Hl.
  assert (H1 : rest i = [] ++ kt ++ w1 ++ (x3d :: w2 ++ v ++ w ++ c ++ le ++ r)) by (rewrite H, <- !app_assoc; reflexivity).
  assert (Hks : key_stop (x3d :: w2 ++ v ++ w ++ c ++ le ++ r)) by (eexists _, _; split; [reflexivity|auto]).
  destruct (Nat.ltb (length p) LIMIT) eqn:Hp; [apply Nat.ltb_lt in Hp|apply Nat.ltb_ge in Hp].
  2:{ destruct (key_too_long i [] kt p w1 _ eq_refl Hkt Hw1 H1 Hks Hp) as (j & Ek).
      unfold fails. rewrite parse_keyval_unfold. apply bind_fails. exists (err_of RecursionLimit), j. exact Ek. }
  destruct (key_complete i [] kt p w1 _ eq_refl Hkt Hw1 H1 Hks Hp) as (kp & Ek & Hkp).
  cbn [app] in Ek. set (j1 := adv (kt ++ w1) i) in *.
  assert (R1 : rest j1 = x3d :: w2 ++ v ++ w ++ c ++ le ++ r) by (apply rest_adv; rewrite H1, <- !app_assoc; reflexivity).
  assert (R2 : rest (adv [KEYVAL_SEP] j1) = w2 ++ v ++ w ++ c ++ le ++ r) by (apply (rest_adv [x3d]); exact R1).
  destruct (val_tok_head v a Hv) as (b & v' & E & Hb).
  assert (S2 : stops wschar (v ++ w ++ c ++ le ++ r)) by (rewrite E; apply (vhead_facts b Hb)).
  assert (R3 : rest (adv w2 (adv [KEYVAL_SEP] j1)) = v ++ w ++ c ++ le ++ r) by (apply rest_adv; exact R2).
  assert (Hf : vfollow (w ++ c ++ le ++ r)).
  { exists w, (c ++ le ++ r). split; [reflexivity|]. split; [exact Hw|apply opt_comment_lend_vstop; assumption]. }
  pose proof (context_ok _ _ _ _ (byte_ok KEYVAL_SEP j1 _ R1)) as Esep.
  pose proof (span_ws_complete _ w2 _ R2 Hw2 S2) as Epre.
  pose proof (value_det v a _ _ Hv R3 Hf) as Hval. change (depth (adv w2 (adv [KEYVAL_SEP] j1))) with (depth i) in Hval.
  destruct (vgoodb (depth i) a).
  - destruct Hval as (val & Ev & Hval).
    assert (R4 : rest (adv v (adv w2 (adv [KEYVAL_SEP] j1))) = w ++ c ++ le ++ r) by (apply rest_adv; exact R3).
    destruct (line_trailing_complete _ w c le r R4 Hw Hc Hl) as (sp & Et).
    rewrite parse_keyval_unfold, (bind_ok _ _ _ _ _ Ek).
    assert (Erhs : cut_err (context (byte_ KEYVAL_SEP) ;;;
                     pre <- span_ ws ;; v0 <- value_ ;; suf <- context line_trailing ;; ret (pre, v0, suf)) j1
                   = Ok ((pos (adv [KEYVAL_SEP] j1), pos (adv w2 (adv [KEYVAL_SEP] j1))), val, sp)
                        (adv (w ++ c ++ le) (adv v (adv w2 (adv [KEYVAL_SEP] j1))))).
    { apply cut_err_ok. rewrite (bind_ok _ _ _ _ _ Esep), (bind_ok _ _ _ _ _ Epre), (bind_ok _ _ _ _ _ Ev).
      rewrite (bind_ok _ _ _ _ _ (context_ok _ _ _ _ Et)). reflexivity. }
    rewrite (bind_ok _ _ _ _ _ Erhs). cbv beta iota.
    assert (Hne : kp <> []) by (intros ->; apply (key_tok_nonempty _ _ Hkt); rewrite <- Hkp; reflexivity).
    destruct (pop_key_nonempty kp Hne) as (path & k & Ep). rewrite Ep.
    eexists. split.
    + unfold ret, j1. rewrite !adv_adv. f_equal. f_equal. rewrite <- ?app_assoc. cbn [app]. rewrite <- ?app_assoc. reflexivity.
    + split; cbn [fst snd].
      * rewrite <- Hkp. apply (pop_key_keys _ _ _ Ep).
      * eexists. split; [reflexivity|]. apply vrel_decorate. exact Hval.
  - unfold cuts. rewrite parse_keyval_unfold. eapply cuts_bind_ok; [exact Ek|]. apply cuts_bind, cuts_cut_err.
    eapply cuts_bind_ok; [exact Esep|]. eapply cuts_bind_ok; [exact Epre|]. apply cuts_bind.
    exact Hval.
Qed.

(* ---- table headers ---------------------------------------------------------------------------------- *)
Definition topen (arr : bool) : bytes := if arr then [x5b; x5b] else [x5b].
Definition tclose (arr : bool) : bytes := if arr then [x5d; x5d] else [x5d].
Definition open_p (arr : bool) : parser unit := if arr then pvoid (lit ARRAY_TABLE_OPEN) else pvoid (byte_ STD_TABLE_OPEN).
Definition close_p (arr : bool) : parser unit := if arr then pvoid (lit ARRAY_TABLE_CLOSE) else pvoid (byte_ STD_TABLE_CLOSE).

Definition header_text (arr : bool) : parser ((list key * (N * N)) * (N * N)) :=
  pair_ (with_span (delimited (open_p arr) (cut_err key_) (context (cut_err (close_p arr)))))
        (context (cut_err line_trailing)).

Lemma header_unfold arr st :
  header arr st = try_map (fun '((h, sp), t) => lift_state (on_header arr st h t sp)) (header_text arr).
Proof. destruct arr; reflexivity. Qed.

Definition table_tok (arr : bool) (t : bytes) (p : list bytes) : Prop :=
  if arr then array_table_tok t p else std_table_tok t p.

Lemma table_tok_eq arr t p :
  table_tok arr t p <-> exists w1 k w2, t = topen arr ++ w1 ++ k ++ w2 ++ tclose arr /\ ws_tok w1 /\ key_tok k p /\ ws_tok w2.
Proof. destruct arr; reflexivity. Qed.

Lemma open_p_ok arr i r : rest i = topen arr ++ r -> open_p arr i = Ok tt (adv (topen arr) i).
Proof.
  destruct arr; intro H; unfold open_p, topen in *.
  - apply (pvoid_ok _ _ ARRAY_TABLE_OPEN). apply (lit_ok ARRAY_TABLE_OPEN i r H).
  - apply (pvoid_ok _ _ STD_TABLE_OPEN). apply (byte_ok STD_TABLE_OPEN i r H).
Qed.
Lemma close_p_ok arr i r : rest i = tclose arr ++ r -> close_p arr i = Ok tt (adv (tclose arr) i).
Proof.
  destruct arr; intro H; unfold close_p, tclose in *.
  - apply (pvoid_ok _ _ ARRAY_TABLE_CLOSE). apply (lit_ok ARRAY_TABLE_CLOSE i r H).
  - apply (pvoid_ok _ _ STD_TABLE_CLOSE). apply (byte_ok STD_TABLE_CLOSE i r H).
Qed.
Lemma open_p_inv arr i u i' : open_p arr i = Ok u i' -> splits i (topen arr) i'.
Proof.
  destruct arr; unfold open_p, topen; intro H; apply pvoid_inv in H as (a & H).
  - apply lit_inv in H as [_ S]. exact S.
  - apply byte_inv in H as [_ S]. exact S.
Qed.
Lemma close_p_inv arr i u i' : close_p arr i = Ok u i' -> splits i (tclose arr) i'.
Proof.
  destruct arr; unfold close_p, tclose; intro H; apply pvoid_inv in H as (a & H).
  - apply lit_inv in H as [_ S]. exact S.
  - apply byte_inv in H as [_ S]. exact S.
Qed.

Lemma header_text_sound arr i kp sp tr i1 : header_text arr i = Ok ((kp, sp), tr) i1 ->
  exists t p w c le,
    table_tok arr t p /\ ws_tok w /\ opt_comment c /\ splits i ((t ++ w ++ c) ++ le) i1 /\ lend le (rest i1)
    /\ map k_key kp = p /\ length kp < LIMIT /\ kp <> [].
Proof.
  unfold header_text, pair_. intro H. apply bind_inv in H as ([kp0 sp0] & j1 & H1 & H).
  apply bind_inv in H as (tr0 & j2 & H2 & H). apply ret_inv in H as [E ->]. injection E as <- <- <-.
  apply with_span_inv in H1 as (kp1 & H1 & E). injection E as <- _.
  unfold delimited in H1. apply bind_inv in H1 as (u & k1 & Eo & H1). apply open_p_inv in Eo.
  apply bind_inv in H1 as (kp2 & k2 & Ek & H1). apply cut_err_inv in Ek.
  apply bind_inv in H1 as (u2 & k3 & Ec & H1). apply context_inv, cut_err_inv, close_p_inv in Ec.
  apply ret_inv in H1 as [<- ->].
  apply key_sound in Ek as (w1 & kt & w2 & Hw1 & Hkt & Hw2 & Sk & Hlen).
  apply context_inv, cut_err_inv, line_trailing_sound in H2 as (w & c & le & Hw & Hc & S2 & Hl).
  exists (topen arr ++ w1 ++ kt ++ w2 ++ tclose arr), (map k_key kp), w, c, le.
  split; [apply table_tok_eq; exists w1, kt, w2; auto|]. split; [exact Hw|]. split; [exact Hc|]. split; [|split; [exact Hl|split; [reflexivity|split; [exact Hlen|]]]].
  - pose proof (splits_trans _ _ _ _ _ Eo (splits_trans _ _ _ _ _ Sk (splits_trans _ _ _ _ _ Ec S2))) as S.
    rewrite <- !app_assoc in *. exact S.
  - intros ->. apply (key_tok_nonempty _ _ Hkt). reflexivity.
Qed.

Lemma tclose_key_stop arr r : key_stop (tclose arr ++ r).
Proof. destruct arr; eexists _, _; (split; [reflexivity|]); auto. Qed.

(* ... and header_text on the text of a table header: `cut_err key` commits on too long a path *)
Lemma header_text_det arr i t p w c le r :
  table_tok arr t p -> ws_tok w -> opt_comment c -> rest i = (t ++ w ++ c) ++ le ++ r -> lend le r ->
  if Nat.ltb (length p) LIMIT
  then exists kp sp tr, header_text arr i = Ok ((kp, sp), tr) (adv ((t ++ w ++ c) ++ le) i) /\ map k_key kp = p
  else cuts (header_text arr) i.
Proof.
  intros Ht Hw Hc H Hl. apply table_tok_eq in Ht as (w1 & kt & w2 & -> & Hw1 & Hkt & Hw2).
  assert (H0 : rest i = topen arr ++ w1 ++ kt ++ w2 ++ (tclose arr ++ w ++ c ++ le ++ r))
    by (rewrite H, <- !app_assoc; reflexivity).
  set (j1 := adv (topen arr) i). pose proof (rest_adv _ _ i H0) as R1. fold j1 in R1.
  pose proof (open_p_ok arr i _ H0) as Eo. fold j1 in Eo.
  destruct (Nat.ltb (length p) LIMIT) eqn:Hp; [apply Nat.ltb_lt in Hp|apply Nat.ltb_ge in Hp].
  2:{ unfold header_text, pair_. apply cuts_bind, cuts_with_span. unfold delimited.
      eapply cuts_bind_ok; [exact Eo|]. apply cuts_bind, cuts_cut_err_fails.
      destruct (key_too_long j1 w1 kt p w2 _ Hw1 Hkt Hw2 R1 (tclose_key_stop arr _) Hp) as (j & Ek).
      exists (err_of RecursionLimit), j. exact Ek. }
  destruct (key_complete j1 w1 kt p w2 _ Hw1 Hkt Hw2 R1 (tclose_key_stop arr _) Hp) as (kp & Ek & Hkp).
  set (j2 := adv (w1 ++ kt ++ w2) j1) in *.
  assert (R2 : rest j2 = tclose arr ++ w ++ c ++ le ++ r) by (apply rest_adv; rewrite R1, <- !app_assoc; reflexivity).
  assert (Ed : delimited (open_p arr) (cut_err key_) (context (cut_err (close_p arr))) i = Ok kp (adv (tclose arr) j2)).
  { unfold delimited. rewrite (bind_ok _ _ _ _ _ Eo).
    rewrite (bind_ok _ _ _ _ _ (cut_err_ok _ _ _ _ Ek)). fold j2.
    rewrite (bind_ok _ _ _ _ _ (context_ok _ _ _ _ (cut_err_ok _ _ _ _ (close_p_ok arr j2 _ R2)))). reflexivity. }
  set (j3 := adv (tclose arr) j2) in *.
  assert (R3 : rest j3 = w ++ c ++ le ++ r) by (apply rest_adv; exact R2).
  destruct (line_trailing_complete j3 w c le r R3 Hw Hc Hl) as (tr & Et).
  exists kp, (pos i, pos j3), tr. split; [|exact Hkp].
  unfold header_text, pair_. rewrite (bind_ok _ _ _ _ _ (with_span_ok _ _ _ _ Ed)).
  rewrite (bind_ok _ _ _ _ _ (context_ok _ _ _ _ (cut_err_ok _ _ _ _ Et))).
  unfold ret, j3, j2, j1. rewrite !adv_adv. f_equal. f_equal. rewrite <- !app_assoc. reflexivity.
Qed.

(* table.rs `table`: "[[" selects array_table *)
Lemma table_unfold st i :
  table st i = context (two <- peek (take_n 2) ;; if bytes_eqb two [x5b; x5b] then header true st else header false st) i.
Proof. reflexivity. Qed.

Lemma table_inv st i st1 i1 : table st i = Ok st1 i1 -> exists arr, header arr st i = Ok st1 i1.
Proof.
  rewrite table_unfold. intro H. apply context_inv in H. apply bind_inv in H as (two & j & H1 & H).
  apply peek_inv in H1 as [-> _]. destruct (bytes_eqb two [x5b; x5b]); eauto.
Qed.

Lemma simple_key_not_open t k : simple_key_tok t k -> exists b t', t = b :: t' /\ b <> x5b.
Proof.
  intros [(_ & body & -> & _) | [(_ & body & -> & _) | [[Hne Ha] _]]].
  - exists x22, (body ++ [x22]). split; [reflexivity|discriminate].
  - exists x27, (body ++ [x27]). split; [reflexivity|discriminate].
  - destruct t as [|b t']; [congruence|]. exists b, t'. split; [reflexivity|].
    unfold all in Ha. cbn [forallb] in Ha. apply andb_true_iff in Ha as [Hb _]. intros ->. discriminate Hb.
Qed.

Lemma table_dispatch arr st i t p r :
  table_tok arr t p -> rest i = t ++ r -> table st i = context (header arr st) i.
Proof.
  intros Ht H. apply table_tok_eq in Ht as (w1 & kt & w2 & -> & Hw1 & Hkt & Hw2). rewrite table_unfold.
  assert (E : exists b1 b2 tl, rest i = b1 :: b2 :: tl /\ bytes_eqb [b1; b2] [x5b; x5b] = arr).
  { destruct arr; unfold topen in H.
    - exists x5b, x5b, (w1 ++ kt ++ w2 ++ tclose true ++ r). split; [rewrite H, <- !app_assoc; reflexivity|reflexivity].
    - assert (G : exists b tl, w1 ++ kt ++ w2 ++ tclose false ++ r = b :: tl /\ b <> x5b).
      { destruct w1 as [|b w1'].
        - assert (Hk : exists b t', kt = b :: t' /\ b <> x5b).
          { destruct Hkt as [t0 k0 Hs | t0 k0 wa wb u ks Hs _ _ _]; destruct (simple_key_not_open _ _ Hs) as (b & t' & -> & Hb);
              eexists b, _; (split; [reflexivity|exact Hb]). }
          destruct Hk as (b & t' & -> & Hb). exists b, (t' ++ w2 ++ tclose false ++ r). split; [reflexivity|exact Hb].
        - exists b, (w1' ++ kt ++ w2 ++ tclose false ++ r). split; [reflexivity|].
          unfold ws_tok, all in Hw1. cbn [forallb] in Hw1. apply andb_true_iff in Hw1 as [Hb _]. intros ->. discriminate Hb. }
      destruct G as (b & tl & G & Hb). exists x5b, b, tl.
      split; [rewrite H; rewrite <- ?app_assoc; cbn [app]; rewrite <- ?app_assoc; rewrite <- G; reflexivity|].
      cbn [bytes_eqb]. change (byte_eqb x5b x5b) with true. cbn [andb]. apply byte_eqb_neq in Hb. rewrite Hb. reflexivity. }
  destruct E as (b1 & b2 & tl & R & Eb).
  unfold context, bind, peek, take_n. rewrite R. cbn [length Nat.ltb Nat.leb firstn]. rewrite Eb. destruct arr; reflexivity.
Qed.
