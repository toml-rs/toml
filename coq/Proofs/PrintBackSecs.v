(* Proofs/PrintBackSecs.v — C03, class (c): the sections of a tree without their paths (`P`): position,
   array flag, decor, start of the span, values.  How descend_path (Model/Document.v with_table_at)
   changes them: only at the table it reaches. *)
From TV Require Import Base.Prelude.
From TV Require Import Model.Tree.
From TV Require Import Proofs.SpansDefs Proofs.PrintBackSort Proofs.PrintBackEnts
                       Proofs.PrintBackDisplay.
From TV Require Import Proofs.KvFacts.
From TV Require Import Proofs.DocumentOps.
Require Import Lia ZifyBool ZifyN ZifyNat Sorting.Sorted Sorting.Permutation.

Definition psec : Type := (N * (bool * decor * option N * list (key * value)))%type.
Definition sec_of (t : tbl) (a : bool) : psec :=
  (match t_position t with Some q => q | None => 0%N end,
   (a, t_decor t, match t_span t with Some sp => Some (fst sp) | None => None end, vals (t_items t))).
Definition own (t : tbl) (a : bool) : list psec := if a || negb (t_implicit t && no_vals t) then [sec_of t a] else [].

Fixpoint P (t : tbl) (a : bool) {struct t} : list psec :=
  match t with
  | Tbl items _ _ _ _ _ =>
    own t a ++ (fix go (l : list (key * item)) : list psec := match l with [] => [] | (_, it) :: tl => PIt it ++ go tl end) items
  end
with PIt (it : item) {struct it} : list psec :=
  match it with
  | ITable sub => P sub false
  | IAot ts _ => (fix goa (l : list tbl) : list psec := match l with [] => [] | sub :: tl => P sub true ++ goa tl end) ts
  | _ => []
  end.
Definition PI (items : list (key * item)) : list psec := flat_map (fun kv => PIt (snd kv)) items.

Lemma P_eq t a : P t a = own t a ++ PI (t_items t).
Proof.
  destruct t as [items d im dt pos sp]. cbn [P t_items]. f_equal. unfold PI.
  induction items as [|[k it] tl IH]; [reflexivity|]. cbn [flat_map snd]. rewrite <- IH. reflexivity.
Qed.
Lemma PIt_aot ts sp : PIt (IAot ts sp) = flat_map (fun sub => P sub true) ts.
Proof. cbn [PIt]. induction ts as [|t tl IH]; [reflexivity|]. cbn [flat_map]. rewrite <- IH. reflexivity. Qed.
Lemma PIt_table t : PIt (ITable t) = P t false.
Proof. reflexivity. Qed.
Lemma PI_app a b : PI (a ++ b) = PI a ++ PI b.
Proof. apply flat_map_app. Qed.

(* ---- P is what the visible entries are, paths forgotten ------------------------------------------------------ *)
Definition pe (e : entry) : psec := sec_of (etbl e) (snd e).

Lemma own_svis t p a : own t a = map pe (filter svis [(t, p, a)]).
Proof. unfold own. cbn [filter svis]. destruct (a || negb (t_implicit t && no_vals t)); reflexivity. Qed.

Lemma sub_ents_PI (l : list (key * item)) p :
  Forall (fun kv : key * item => forall p, sec_item (snd kv) = true -> map pe (filter svis (ients (snd kv) p)) = PIt (snd kv)) l ->
  (forall x, In x l -> sec_item (snd x) = true) -> map pe (filter svis (sub_ents l p)) = PI l.
Proof.
  unfold sub_ents, PI. induction 1 as [|[k it] tl Ht _ IHl]; intro Hi; [reflexivity|]. cbn [flat_map fst snd]. rewrite filter_app, map_app.
  cbn [snd] in Ht. rewrite (Ht (p ++ [k]) (Hi _ (or_introl eq_refl))). f_equal. apply IHl. intros x Hx. apply Hi. right. exact Hx.
Qed.

Lemma ents_P :
  (forall v : value, True)
  /\ (forall it, forall p, sec_item it = true -> map pe (filter svis (ients it p)) = PIt it)
  /\ (forall t, forall p a, sec_tbl t = true -> map pe (filter svis (ents t p a)) = P t a).
Proof.
  apply tree_ind3; try (intros; exact I).
  - intros; discriminate.
  - intros; reflexivity.
  - intros t IH p Hs. rewrite ients_table, PIt_table. apply IH, Hs.
  - intros ts sp IH p Hs. rewrite ients_aot, PIt_aot. rewrite sec_item_aot in Hs. rewrite forallb_forall in Hs.
    induction IH as [|t tl Ht _ IHl]; [reflexivity|]. cbn [flat_map]. rewrite filter_app, map_app.
    rewrite (Ht p true (Hs t (or_introl eq_refl))). f_equal. apply IHl. intros x Hx. apply Hs. right. exact Hx.
  - intros items d im dt pos sp IH p a Hs. rewrite ents_eq, P_eq. rewrite sec_tbl_eq in Hs. cbn [t_dotted t_items] in *.
    apply andb_true_iff in Hs as [Hd Hi]. destruct dt; [discriminate|]. rewrite filter_app, map_app. apply f_equal2; [symmetry; apply own_svis|].
    rewrite forallb_forall in Hi. apply sub_ents_PI; assumption.
Qed.

Lemma sub_ents_P r : sec_tbl r = true -> map pe (filter svis (sub_ents (t_items r) [])) = PI (t_items r).
Proof.
  intro Hs. rewrite sec_tbl_eq in Hs. apply andb_true_iff in Hs as [_ Hi]. rewrite forallb_forall in Hi.
  apply sub_ents_PI; [|exact Hi]. apply Forall_forall. intros [k it] _ p. apply (proj1 (proj2 ents_P)).
Qed.

(* ---- kv_get / kv_set / kv_push / kv_remove ------------------------------------------------------------------- *)
Definition kk (kv : key * item) : bytes := k_key (fst kv).

Lemma keys_set m k it : map kk (kv_set m k it) = map kk m.
Proof. exact (kkeys_set m k it). Qed.
Lemma nodup_push m k it : NoDup (map kk m) -> kv_get m (k_key k) = None -> NoDup (map kk (kv_push m k it)).
Proof. exact (NoDup_kkeys_push m k it). Qed.
Lemma nodup_remove m k k0 it : NoDup (map kk m) -> kv_get m k = Some (k0, it) ->
  NoDup (map kk (kv_remove m k)) /\ kv_get (kv_remove m k) k = None.
Proof. intros Hn Hg. split; [exact (NoDup_kkeys_remove m k Hn)|exact (kv_get_remove_same m k k0 it Hn Hg)]. Qed.

Definition is_tab (it : item) : bool := match it with IValue _ => false | _ => true end.

(* ---- the invariants of every table of the tree: unique keys; a table that exists only as a
   super-table holds no values; the keys of tables satisfy K (they were read from headers) ------------------- *)
Section UK.
  Variable K : key -> Prop.
  Fixpoint uk (t : tbl) {struct t} : Prop :=
    match t with
    | Tbl items _ im _ _ _ =>
      NoDup (map kk items) /\ (im = true -> vals items = []) /\
      (fix go (l : list (key * item)) : Prop := match l with [] => True | (k, it) :: tl => (is_tab it = true -> K k) /\ uki it /\ go tl end) items
    end
  with uki (it : item) {struct it} : Prop :=
    match it with
    | ITable sub => uk sub
    | IAot ts _ => (fix goa (l : list tbl) : Prop := match l with [] => True | sub :: tl => uk sub /\ goa tl end) ts
    | _ => True
    end.
  Definition uks (items : list (key * item)) : Prop := Forall (fun kv => (is_tab (snd kv) = true -> K (fst kv)) /\ uki (snd kv)) items.

  Lemma uk_eq t : uk t <-> NoDup (map kk (t_items t)) /\ (t_implicit t = true -> vals (t_items t) = []) /\ uks (t_items t).
  Proof.
    destruct t as [items d im dt pos sp]. cbn [uk t_items t_implicit]. unfold uks.
    assert (H : (fix go (l : list (key * item)) : Prop := match l with [] => True | (k, it) :: tl => (is_tab it = true -> K k) /\ uki it /\ go tl end) items
                <-> Forall (fun kv => (is_tab (snd kv) = true -> K (fst kv)) /\ uki (snd kv)) items).
    { induction items as [|[k it] tl IH]; [split; [constructor|auto]|]. rewrite Forall_cons_iff, <- IH. cbn [fst snd]. tauto. }
    rewrite H. reflexivity.
  Qed.
  Lemma uki_aot ts sp : uki (IAot ts sp) <-> Forall uk ts.
  Proof. cbn [uki]. induction ts as [|t tl IH]; [split; [constructor|auto]|]. rewrite Forall_cons_iff, <- IH. reflexivity. Qed.

  Lemma uks_get m k k0 it : uks m -> kv_get m k = Some (k0, it) -> (is_tab it = true -> K k0) /\ uki it.
  Proof.
    intros Hu Hg. destruct (kv_get_split m k k0 it Hg) as (A & B & -> & _). unfold uks in Hu. apply Forall_app in Hu as [_ Hu].
    inversion Hu; subst. assumption.
  Qed.
  Lemma uks_set m k k0 it0 it : uks m -> kv_get m k = Some (k0, it0) -> (is_tab it = true -> K k0) -> uki it -> uks (kv_set m k it).
  Proof.
    intros Hu Hg Hk Hi. destruct (kv_get_split m k k0 it0 Hg) as (A & B & -> & _ & Hs & _). rewrite Hs. unfold uks in *.
    apply Forall_app in Hu as [HA HB]. inversion HB; subst. apply Forall_app. split; [exact HA|]. constructor; [split; assumption|assumption].
  Qed.
  Lemma uks_push m k it : uks m -> (is_tab it = true -> K k) -> uki it -> uks (kv_push m k it).
  Proof. intros Hu Hk Hi. apply Forall_app. split; [exact Hu|constructor; [split; assumption|constructor]]. Qed.
  Lemma uks_remove m k : uks m -> uks (kv_remove m k).
  Proof.
    unfold uks. induction m as [|[k1 v1] m IH]; intro Hu; [constructor|]. cbn [kv_remove]. inversion Hu; subst.
    destruct (bytes_eqb (k_key k1) k); [assumption|constructor; auto].
  Qed.
End UK.

(* ---- only table entries change ---------------------------------------------------------------------------------- *)
Definition frame (t t' : tbl) : Prop :=
  t_decor t' = t_decor t /\ t_implicit t' = t_implicit t /\ t_dotted t' = t_dotted t /\ t_position t' = t_position t
  /\ t_span t' = t_span t /\ vals (t_items t') = vals (t_items t).

Lemma frame_refl t : frame t t.
Proof. repeat split. Qed.

Lemma frame_own t t' a : frame t t' -> own t' a = own t a.
Proof. intros (H1 & H2 & H3 & H4 & H5 & H6). unfold own, sec_of, no_vals. rewrite H1, H2, H4, H5, H6. reflexivity. Qed.

Lemma vals_app a b : vals (a ++ b) = vals a ++ vals b.
Proof. apply flat_map_app. Qed.

Lemma vals_set m k k0 it it' : kv_get m k = Some (k0, it) -> is_tab it = true -> is_tab it' = true -> vals (kv_set m k it') = vals m.
Proof.
  intros Hg H1 H2. destruct (kv_get_split m k k0 it Hg) as (A & B & -> & _ & Hs & _). rewrite Hs, !vals_app. f_equal.
  unfold vals. cbn [flat_map snd]. destruct it, it'; try discriminate; reflexivity.
Qed.
Lemma vals_push_tab m k it : is_tab it = true -> vals (kv_push m k it) = vals m.
Proof. intro H. unfold kv_push. rewrite vals_app. unfold vals at 2. cbn [flat_map snd]. destruct it; try discriminate; rewrite app_nil_r; reflexivity. Qed.
Lemma vals_remove_tab m k k0 it : kv_get m k = Some (k0, it) -> is_tab it = true -> vals (kv_remove m k) = vals m.
Proof.
  intros Hg H1. destruct (kv_get_split m k k0 it Hg) as (A & B & -> & _ & _ & ->). rewrite !vals_app. f_equal.
  unfold vals at 2. cbn [flat_map snd]. destruct it; try discriminate; reflexivity.
Qed.

Lemma frame_set_items t m : vals m = vals (t_items t) -> frame t (t_set_items t m).
Proof. intro H. destruct t. cbn [t_set_items]. repeat split. exact H. Qed.

Lemma PI_set m k k0 it it' D1 D2 : kv_get m k = Some (k0, it) ->
  Permutation (PIt it' ++ D1) (PIt it ++ D2) -> Permutation (PI (kv_set m k it') ++ D1) (PI m ++ D2).
Proof.
  intros Hg Hp. destruct (kv_get_split m k k0 it Hg) as (A & B & -> & _ & Hs & _). rewrite Hs, !PI_app.
  change (PI ((k0, it') :: B)) with (PIt it' ++ PI B). change (PI ((k0, it) :: B)) with (PIt it ++ PI B).
  rewrite <- !app_assoc. apply Permutation_app_head.
  transitivity (PI B ++ PIt it' ++ D1); [rewrite !app_assoc; apply Permutation_app_tail, Permutation_app_comm|].
  transitivity (PI B ++ PIt it ++ D2); [apply Permutation_app_head, Hp|].
  rewrite !app_assoc. apply Permutation_app_tail, Permutation_app_comm.
Qed.

(* ---- descend_path ------------------------------------------------------------------------------------------------ *)
Lemma own_implicit0 (a : bool) sub : frame (implicitd false) sub -> own sub false = [].
Proof. intro H. rewrite (frame_own _ _ false H). reflexivity. Qed.

Lemma ctx_frame p r r' par par' : dctx_rel false p r r' par par' -> frame par par' -> frame r r'.
Proof.
  induction 1 as [t t'|t k p sub par par' G _ IH|t k p k0 sub sub' par par' G _ IH|t k p k0 ts sp last rinit last' par par' G Er _ IH]; intro Hf.
  - exact Hf.
  - apply frame_set_items, vals_push_tab. reflexivity.
  - apply frame_set_items, (vals_set _ _ _ _ _ G); reflexivity.
  - apply frame_set_items, (vals_set _ _ _ _ _ G); reflexivity.
Qed.


Lemma ctx_perm p r r' par par' D1 D2 : dctx_rel false p r r' par par' -> frame par par' ->
  Permutation (PI (t_items par') ++ D1) (PI (t_items par) ++ D2) -> Permutation (PI (t_items r') ++ D1) (PI (t_items r) ++ D2).
Proof.
  induction 1 as [t t'|t k p sub par par' G Hc IH|t k p k0 sub sub' par par' G Hc IH|t k p k0 ts sp last rinit last' par par' G Er Hc IH]; intros Hf Hp.
  - exact Hp.
  - rewrite items_set_items. unfold kv_push. rewrite PI_app. change (PI [(k, ITable sub)]) with (P sub false ++ []). rewrite app_nil_r, P_eq.
    rewrite (own_implicit0 false sub (ctx_frame _ _ _ _ _ Hc Hf)). cbn [app]. rewrite <- app_assoc.
    apply Permutation_app_head. specialize (IH Hf Hp). cbn [implicitd t_items PI flat_map app] in IH. exact IH.
  - rewrite items_set_items. apply (PI_set _ _ _ _ _ _ _ G). rewrite !PIt_table, !P_eq, (frame_own _ _ false (ctx_frame _ _ _ _ _ Hc Hf)).
    rewrite <- !app_assoc. apply Permutation_app_head, IH; assumption.
  - rewrite items_set_items. apply (PI_set _ _ _ _ _ _ _ G). rewrite !PIt_aot.
    assert (Ets : ts = rev rinit ++ [last]) by (rewrite <- (rev_involutive ts), Er; reflexivity).
    rewrite Ets. cbn [rev]. rewrite !flat_map_app. cbn [flat_map]. rewrite !app_nil_r, !P_eq, (frame_own _ _ true (ctx_frame _ _ _ _ _ Hc Hf)).
    rewrite <- !app_assoc. apply Permutation_app_head, Permutation_app_head, IH; assumption.
Qed.

Section CtxUK.
  Variable K : key -> Prop.

  Lemma uk_implicit0 : uk K (implicitd false).
  Proof. apply uk_eq. split; [constructor|]. split; [reflexivity|constructor]. Qed.

  Lemma uk_set_items t m : NoDup (map kk m) -> vals m = vals (t_items t) -> uk K t -> uks K m -> uk K (t_set_items t m).
  Proof.
    intros H1 Hv Hu H2. apply uk_eq in Hu as (_ & Him & _). apply uk_eq. rewrite items_set_items. split; [exact H1|]. split; [|exact H2].
    destruct t. cbn [t_set_items t_implicit t_items] in *. rewrite Hv. exact Him.
  Qed.

  Lemma ctx_uk p r r' par par' : dctx_rel false p r r' par par' -> Forall K p -> uk K r -> uk K par /\ (uk K par' -> uk K r').
  Proof.
    induction 1 as [t t'|t k p sub par par' G Hc IH|t k p k0 sub sub' par par' G Hc IH|t k p k0 ts sp last rinit last' par par' G Er Hc IH]; intros HK Hu.
    - auto.
    - inversion HK as [|? ? Hk HK']; subst. destruct (IH HK' uk_implicit0) as [H1 H2]. split; [exact H1|]. intro Hp.
      pose proof Hu as Hu0. apply uk_eq in Hu as (Hn & Him & Hs).
      apply uk_set_items; [apply nodup_push; assumption|apply vals_push_tab; reflexivity|exact Hu0|].
      apply uks_push; [exact Hs|intros _; exact Hk|apply H2, Hp].
    - inversion HK as [|? ? Hk HK']; subst. pose proof Hu as Hu0. apply uk_eq in Hu as (Hn & Him & Hs).
      destruct (uks_get K _ _ _ _ Hs G) as [Hk0 Hsub]. destruct (IH HK' Hsub) as [H1 H2]. split; [exact H1|]. intro Hp.
      apply uk_set_items; [rewrite keys_set; exact Hn|apply (vals_set _ _ _ _ _ G); reflexivity|exact Hu0|].
      apply (uks_set K _ _ _ _ _ Hs G); [intros _; apply Hk0; reflexivity|apply H2, Hp].
    - inversion HK as [|? ? Hk HK']; subst. pose proof Hu as Hu0. apply uk_eq in Hu as (Hn & Him & Hs).
      destruct (uks_get K _ _ _ _ Hs G) as [Hk0 Hsub]. apply uki_aot in Hsub.
      assert (Ets : ts = rev rinit ++ [last]) by (rewrite <- (rev_involutive ts), Er; reflexivity).
      rewrite Ets in Hsub. apply Forall_app in Hsub as [Hinit Hlast]. inversion Hlast as [|? ? Hl0 _]; subst.
      destruct (IH HK' Hl0) as [H1 H2]. split; [exact H1|]. intro Hp.
      apply uk_set_items; [rewrite keys_set; exact Hn|apply (vals_set _ _ _ _ _ G); reflexivity|exact Hu0|].
      apply (uks_set K _ _ _ _ _ Hs G); [intros _; apply Hk0; reflexivity|]. apply uki_aot. cbn [rev]. apply Forall_app. split; [exact Hinit|].
      constructor; [apply H2, Hp|constructor].
  Qed.
End CtxUK.

(* the table reached through a path that exists *)
Fixpoint reach (t : tbl) (p : list key) : option tbl :=
  match p with
  | [] => Some t
  | k :: ptl =>
    match kv_get (t_items t) (k_key k) with
    | Some (_, ITable sub) => reach sub ptl
    | Some (_, IAot ts _) => match rev ts with last :: _ => reach last ptl | [] => None end
    | _ => None
    end
  end.

Lemma ctx_reach p r r' par par' : dctx_rel false p r r' par par' ->
  reach r' p = Some par' /\ (forall par0, reach r p = Some par0 -> par0 = par).
Proof.
  induction 1 as [t t'|t k p sub par par' G Hc IH|t k p k0 sub sub' par par' G Hc IH|t k p k0 ts sp last rinit last' par par' G Er Hc IH].
  - split; [reflexivity|]. intros par0 H. injection H as <-. reflexivity.
  - destruct IH as [H1 _]. cbn [reach]. rewrite items_set_items, (kv_get_push_new _ _ _ G), G. split; [exact H1|discriminate].
  - destruct IH as [H1 H2]. cbn [reach]. rewrite items_set_items, (kv_get_set_same _ _ _ _ _ G), G. auto.
  - destruct IH as [H1 H2]. cbn [reach]. rewrite items_set_items, (kv_get_set_same _ _ _ _ _ G), G, Er, rev_involutive. auto.
Qed.
