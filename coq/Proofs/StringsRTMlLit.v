(* Proofs/StringsRTMlLit.v — multi-line literal strings are read back exactly. *)
From TV Require Import Base.Prelude Base.Utf8 Base.Winnow Gen.Consts.
From TV Require Import Model.Trivia Model.Strings Model.Write.
From TV Require Import Proofs.StringsRTDefs Proofs.StringsRTBase Proofs.StringsRTWrite Proofs.StringsRTEsc Proofs.StringsRTQuotes.
Require Import Lia ZifyBool ZifyN ZifyNat.

Local Notation q := x27 (only parsing).
Lemma apos_ascii : (b2n x27 <= 127)%N.
Proof. vm_compute. discriminate. Qed.

(* a content byte of a multi-line literal string *)
Definition cb (b : byte) : bool := in_class MLL_CHAR b || byte_eqb b x0a.
(* a byte a multi-line literal string may hold *)
Definition okb (b : byte) : bool := cb b || byte_eqb b x27.

Lemma newline_lf X p d : newline (mkIn (x0a :: X) p d) = Ok tt (mkIn X (p + 1)%N d).
Proof. reflexivity. Qed.

Lemma mll_content_yes b X p d : cb b = true ->
  exists a, mll_content (mkIn (b :: X) p d) = Ok a (mkIn X (p + 1)%N d).
Proof.
  intro H. unfold mll_content, alt. rewrite one_of_cons.
  destruct (in_class MLL_CHAR b) eqn:E; [eauto|].
  unfold cb in H. rewrite E in H. cbn in H. apply byte_eqb_eq in H. subst b.
  exists x0a. reflexivity.
Qed.

Lemma mll_content_no X p d : starts_q x27 X -> exists e i', mll_content (mkIn X p d) = Bt e i'.
Proof.
  intro H. destruct X as [|b X]; [do 2 eexists; reflexivity|].
  cbn in H. apply byte_eqb_eq in H. subst b. do 2 eexists. reflexivity.
Qed.

Lemma mll_run : forall c acc X p d fuel, forallb cb c = true -> starts_q x27 X ->
  length (c ++ X) < fuel ->
  exists l, repeat0_f fuel mll_content acc (mkIn (c ++ X) p d) = Ok l (after c X p d).
Proof.
  induction c as [|b c IH]; intros acc X p d fuel Hc HX Hf.
  - destruct fuel as [|f]; [lia|]. cbn [repeat0_f app].
    destruct (mll_content_no X p d HX) as [e [i' He]]. rewrite He. rewrite after_nil. eauto.
  - destruct fuel as [|f]; [cbn in Hf; lia|]. cbn [forallb] in Hc. apply andb_true_iff in Hc as [Hb Hc].
    cbn [repeat0_f app]. destruct (mll_content_yes b (c ++ X) p d Hb) as [a Ha]. rewrite Ha.
    cbn [rest length]. rewrite eqb_lt by lia.
    destruct (IH (a :: acc) X (p + 1)%N d f Hc HX) as [l Hl]; [cbn [app length] in Hf; lia|].
    rewrite Hl. exists l. apply ok_inp; [reflexivity|]. unfold after. apply mkIn_eq; [reflexivity|]. cbn [length]. lia.
Qed.

(* ---- the body after its first content run ---------------------------------------------------- *)
Definition Qp : parser (list byte) := quotes2 x27 (t_other x27) ;;; repeat1 mll_content.
Definition Cp : parser (option bytes) := opt (quotes2 x27 (t_delim x27)).
Definition DL (r : bytes) : bytes := x27 :: x27 :: x27 :: r.

Lemma Qp_qqq Z p d : exists e i', Qp (mkIn (x27 :: x27 :: x27 :: Z) p d) = Bt e i'.
Proof.
  unfold Qp. destruct (quotes2_other_qqq x27 Z p d) as [e [i' H]].
  rewrite (bind_bt _ _ _ _ _ H). eauto.
Qed.

Lemma mll_end s acc fuel r p d : s = [] \/ s = [x27] \/ s = [x27; x27] -> not_head x27 r -> 0 < fuel ->
  exists o, (repeat0_f fuel Qp acc ;;; Cp) (mkIn (s ++ DL r) p d) = Ok o (after s (DL r) p d).
Proof.
  intros Hs Hr Hf. destruct fuel as [|f]; [lia|]. unfold bind. cbn [repeat0_f].
  assert (HQ : exists e i', Qp (mkIn (s ++ DL r) p d) = Bt e i').
  { destruct Hs as [-> | [-> | ->]]; apply Qp_qqq. }
  destruct HQ as [e [i' HQ]]. rewrite HQ. unfold Cp.
  destruct Hs as [-> | [-> | ->]]; cbn [app]; unfold DL.
  - destruct (quotes2_delim_0 x27 r p d Hr) as [e1 [i1 H1]].
    rewrite (opt_bt _ _ _ _ H1). rewrite after_nil. eauto.
  - rewrite (opt_ok _ _ _ _ (quotes2_delim_1 x27 apos_ascii r p d Hr)). eauto.
  - rewrite (opt_ok _ _ _ _ (quotes2_delim_2 x27 apos_ascii r p d)). eauto.
Qed.

Lemma okb_cb b : okb b = true -> byte_eqb b x27 = false -> cb b = true.
Proof. unfold okb. intros H E. rewrite E in H. rewrite orb_false_r in H. exact H. Qed.

Lemma okb_run_cb c : forallb okb c = true -> forallb (fun x => negb (byte_eqb x x27)) c = true ->
  forallb cb c = true.
Proof.
  induction c as [|x c IH]; [reflexivity|]. cbn [forallb]. intros H1 H2.
  apply andb_true_iff in H1 as [H1 H1']. apply andb_true_iff in H2 as [H2 H2'].
  rewrite (IH H1' H2'), andb_true_r. apply okb_cb; [exact H1|].
  destruct (byte_eqb x x27); [discriminate|reflexivity].
Qed.

(* one or two apostrophes, then a content run up to the next apostrophe or the delimiter *)
Lemma Qp_mid qs b s2 r p d : qs = [x27] \/ qs = [x27; x27] -> byte_eqb b x27 = false ->
  forallb okb (b :: s2) = true ->
  exists l c s3, s2 = c ++ s3 /\ forallb (fun x => negb (byte_eqb x x27)) c = true /\ starts_q x27 s3 /\
    Qp (mkIn ((qs ++ b :: c) ++ s3 ++ DL r) p d) = Ok l (after (qs ++ b :: c) (s3 ++ DL r) p d).
Proof.
  intros Hqs Eb Hok.
  destruct (split_at_q x27 s2) as [c [s3 [Hs2 [Hc Hs3]]]].
  cbn [forallb] in Hok. apply andb_true_iff in Hok as [Hokb Hok2].
  rewrite Hs2, forallb_app in Hok2. apply andb_true_iff in Hok2 as [Hokc _].
  assert (Eb' : byte_eqb x27 b = false) by (rewrite byte_eqb_sym; exact Eb).
  assert (Hq : quotes2 x27 (t_other x27) (mkIn (qs ++ b :: c ++ s3 ++ DL r) p d)
               = Ok qs (after qs (b :: c ++ s3 ++ DL r) p d)).
  { destruct Hqs as [-> | ->]; cbn [app].
    - apply (quotes2_other_1 x27 apos_ascii b _ p d Eb').
    - apply (quotes2_other_2 x27 apos_ascii b _ p d Eb'). }
  destruct (mll_content_yes b (c ++ s3 ++ DL r) (p + N.of_nat (length qs)) d (okb_cb b Hokb Eb)) as [a Ha].
  destruct (mll_run c [a] (s3 ++ DL r) (p + N.of_nat (length qs) + 1)%N d _
              (okb_run_cb c Hokc Hc) (starts_q_app _ _ _ Hs3) (Nat.lt_succ_diag_r _)) as [l Hl].
  exists l, c, s3. split; [exact Hs2|]. split; [exact Hc|]. split; [exact Hs3|].
  rewrite <- app_assoc. cbn [app].
  unfold Qp. rewrite (bind_ok _ _ _ _ _ Hq). unfold after at 1.
  unfold repeat1. rewrite Ha. cbn [rest]. rewrite Hl.
  change (p + N.of_nat (length qs) + 1)%N with (p + N.of_nat (length qs) + N.of_nat (length [b]))%N.
  rewrite !after_after. reflexivity.
Qed.

(* the loop over apostrophe runs: the fuel is the only measure needed *)
Lemma mll_tail : forall fuel s acc r p d,
  starts_q x27 s -> forallb okb s = true -> no3 x27 0 s = true -> not_head x27 r ->
  length (s ++ DL r) < fuel ->
  exists o, (repeat0_f fuel Qp acc ;;; Cp) (mkIn (s ++ DL r) p d) = Ok o (after s (DL r) p d).
Proof.
  induction fuel as [|f IH]; intros s acc r p d Hstop Hok Hno Hr Hf; [inversion Hf|].
  destruct (no3_cases x27 s Hno Hstop) as [E | [E | [E | E]]];
    try solve [apply mll_end; [auto|exact Hr|apply Nat.lt_0_succ]].
  assert (Hmid : exists qs b s2, s = qs ++ b :: s2 /\ (qs = [x27] \/ qs = [x27; x27]) /\
                   byte_eqb b x27 = false /\ no3 x27 0 (b :: s2) = true).
  { destruct E as [[b [s2 [E1 [E2 E3]]]] | [b [s2 [E1 [E2 E3]]]]].
    - exists [x27], b, s2. auto.
    - exists [x27; x27], b, s2. auto. }
  clear E. destruct Hmid as [qs [b [s2 [Es [Hqs [Eb Hno2]]]]]].
  assert (Hok2 : forallb okb (b :: s2) = true).
  { rewrite Es, forallb_app in Hok. apply andb_true_iff in Hok. tauto. }
  destruct (Qp_mid qs b s2 r p d Hqs Eb Hok2) as [l [c [s3 [Hs2 [Hc [Hstop3 HQ]]]]]].
  assert (Hne : qs ++ b :: c <> []) by (destruct Hqs as [-> | ->]; discriminate).
  set (t := qs ++ b :: c) in *.
  assert (Et : s = t ++ s3) by (unfold t; rewrite Es, Hs2, <- app_assoc; reflexivity).
  rewrite Et, <- app_assoc in Hf |- *.
  rewrite (bind_congr _ _ _ _ _ (repeat0_f_step f Qp acc t _ p d l Hne HQ)), <- after_after.
  apply IH.
  - exact Hstop3.
  - rewrite Et, forallb_app in Hok. apply andb_true_iff in Hok. tauto.
  - rewrite Hs2 in Hno2. change (b :: c ++ s3) with ((b :: c) ++ s3) in Hno2.
    rewrite no3_app_other in Hno2; [exact Hno2| |discriminate].
    cbn [forallb]. rewrite Eb, Hc. reflexivity.
  - exact Hr.
  - apply (fuel_step t); assumption.
Qed.

(* ---- ml_literal_body / ml_literal_string -------------------------------------------------------- *)
Lemma ml_literal_body_rt s r p d :
  forallb okb s = true -> no3 x27 0 s = true -> utf8_valid_b s = true -> not_head x27 r ->
  ml_literal_body (mkIn (s ++ DL r) p d) = Ok s (after s (DL r) p d).
Proof.
  intros Hok Hno Hu Hr.
  destruct (split_at_q x27 s) as [c [s1 [Hs [Hc Hstop1]]]].
  rewrite Hs, forallb_app in Hok. apply andb_true_iff in Hok as [Hokc Hok1].
  assert (Hno1 : no3 x27 0 s1 = true).
  { destruct c as [|x c]; [cbn [app] in Hs; subst s1; exact Hno|].
    rewrite Hs in Hno. rewrite no3_app_other in Hno; [exact Hno|exact Hc|discriminate]. }
  unfold ml_literal_body, from_utf8, try_map, taken.
  change (pvoid (none_of (byte_eqb APOSTROPHE))) with (t_other x27).
  change (pvoid (lit ML_LITERAL_STRING_DELIM)) with (t_delim x27).
  fold Qp. fold Cp.
  destruct (mll_run c [] (s1 ++ DL r) p d _ (okb_run_cb c Hokc Hc) (starts_q_app _ _ _ Hstop1)
              (Nat.lt_succ_diag_r _)) as [l Hl].
  assert (HA : repeat0 mll_content (mkIn (s ++ DL r) p d) = Ok l (after c (s1 ++ DL r) p d)).
  { unfold repeat0. cbn [rest]. rewrite Hs, <- app_assoc. exact Hl. }
  rewrite (bind_ok _ _ _ _ _ HA). unfold after at 1. unfold repeat0 at 1. cbn [rest].
  destruct (mll_tail (S (length (s1 ++ DL r))) s1 [] r (p + N.of_nat (length c))%N d) as [o Ho]; auto.
  unfold bind in Ho |- *. cbv beta. cbn [rest]. rewrite Ho. unfold after. cbn [pos rest].
  assert (Hpos : N.to_nat (p + N.of_nat (length c) + N.of_nat (length s1) - p) = length s).
  { clear - Hs. rewrite Hs, app_length. lia. }
  rewrite Hpos. rewrite firstn_app_len. rewrite Hu.
  apply ok_inp; [reflexivity|]. apply mkIn_eq; [reflexivity|]. clear - Hs. rewrite Hs, app_length. lia.
Qed.

Definition ml_literal_token (nl : bool) (s : bytes) : bytes :=
  [x27; x27; x27] ++ (if nl then [x0a] else []) ++ s ++ [x27; x27; x27].

Lemma replace_crlf_cons a b r : replace_crlf (a :: b :: r) =
  if byte_eqb a x0d && byte_eqb b x0a then x0a :: replace_crlf r else a :: replace_crlf (b :: r).
Proof. reflexivity. Qed.

Lemma replace_crlf_id s : forallb (fun b => negb (byte_eqb b x0d)) s = true -> replace_crlf s = s.
Proof.
  induction s as [|a s IH]; [reflexivity|]. intro H. cbn [forallb] in H. apply andb_true_iff in H as [Ha Hs].
  destruct s as [|b r]; [reflexivity|].
  rewrite replace_crlf_cons. destruct (byte_eqb a x0d); [discriminate|]. cbn [andb]. rewrite (IH Hs). reflexivity.
Qed.

Lemma okb_no_cr s : forallb okb s = true -> forallb (fun b => negb (byte_eqb b x0d)) s = true.
Proof.
  apply forallb_impl. intros b H. unfold okb, cb in H. pose proof (b2n_lt b). byten. lia.
Qed.

(* the first byte of the body is not taken for the newline that may follow the opening delimiter *)
Lemma opt_newline_none X p d :
  match X with [] => True | b :: _ => byte_eqb b x0a = false /\ byte_eqb b x0d = false end ->
  opt newline (mkIn X p d) = Ok None (mkIn X p d).
Proof.
  intro H. destruct X as [|b X]; [reflexivity|]. destruct H as [H1 H2].
  unfold opt, newline. rewrite (bind_ok _ _ _ _ _ (any_cons b X p d)). rewrite H1, H2. reflexivity.
Qed.

Lemma ml_literal_string_rt nl s r p d :
  forallb okb s = true -> no3 x27 0 s = true -> utf8_valid_b s = true -> not_head x27 r ->
  (nl = false -> forallb (fun b => negb (byte_eqb b x0a)) s = true) ->
  ml_literal_string (mkIn (ml_literal_token nl s ++ r) p d) = Ok s (after (ml_literal_token nl s) r p d).
Proof.
  intros Hok Hno Hu Hr Hnl. unfold ml_literal_token. rewrite <- !app_assoc.
  unfold ml_literal_string.
  assert (Hopen : exists p1, p1 = (p + 3 + (if nl then 1 else 0))%N /\
            (lit ML_LITERAL_STRING_DELIM ;;; opt newline)
              (mkIn ([x27; x27; x27] ++ (if nl then [x0a] else []) ++ s ++ [x27; x27; x27] ++ r) p d)
            = Ok (if nl then Some tt else None) (mkIn (s ++ DL r) p1 d)).
  { eexists. split; [reflexivity|].
    rewrite (bind_ok _ _ _ _ _ (lit_yes [x27; x27; x27] _ p d)). unfold after. cbn [length N.of_nat Pos.of_succ_nat Pos.succ].
    destruct nl; cbn [app].
    - erewrite opt_ok; [|apply newline_lf]. reflexivity.
    - rewrite opt_newline_none; [apply ok_inp; [reflexivity|apply mkIn_eq; [reflexivity|lia]]|].
      specialize (Hnl eq_refl). destruct s as [|b s]; [cbn; split; reflexivity|].
      cbn [forallb] in Hnl, Hok. apply andb_true_iff in Hnl as [Hb _]. apply andb_true_iff in Hok as [Hb2 _].
      cbn [app]. split; [destruct (byte_eqb b x0a); [discriminate|reflexivity]|].
      unfold okb, cb in Hb2. pose proof (b2n_lt b). byten. lia. }
  destruct Hopen as [p1 [Hp1 Hopen]]. rewrite (bind_ok _ _ _ _ _ Hopen).
  assert (Hbody : context (cut_err (pmap replace_crlf ml_literal_body)) (mkIn (s ++ DL r) p1 d)
                  = Ok s (after s (DL r) p1 d)).
  { apply context_ok, cut_err_ok. erewrite pmap_ok; [|apply ml_literal_body_rt; assumption].
    rewrite replace_crlf_id; [reflexivity|apply okb_no_cr; exact Hok]. }
  rewrite (bind_ok _ _ _ _ _ Hbody). unfold after at 1. unfold DL.
  rewrite (bind_ok _ _ _ _ _ (context_ok _ _ _ _ (cut_err_ok _ _ _ _ (lit_yes [x27; x27; x27] r _ d)))).
  unfold ret. apply ok_inp; [reflexivity|]. unfold after. apply mkIn_eq; [reflexivity|].
  subst p1. rewrite !app_length. cbn [length]. destruct nl; cbn [length]; lia.
Qed.
