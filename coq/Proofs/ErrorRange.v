(* Proofs/ErrorRange.v — lemmas behind Props/C15.v, part 2: every parser of the model keeps
   the cursor inside the text.  Invariant (L = the document): `rest i = skipn (pos i) L` and
   `pos i <= length L`, for the input every combinator is started on and for the input carried
   by every result (Ok / Bt / Cut).  The error offset of `parse_document` is then <= length L,
   and the bytes at and around it are the bytes the failing parser was looking at. *)
From Coq Require Import List Bool Arith NArith ZArith Lia.
From Coq.Strings Require Import Byte.
From TV Require Import Base.Prelude Base.Utf8 Base.Winnow Gen.Consts.
From TV Require Import Model.Trivia Model.Strings Model.Datetime Model.Numbers Model.Tree Model.Parse Model.Document.
From TV Require Import Proofs.Eoi.
Import ListNotations.
From TV Require Import Base.ListFacts.
From TV Require Import Base.WinnowFacts.

Section Range.
Variable L : bytes.

Definition wf (i : input) : Prop :=
  rest i = skipn (N.to_nat (pos i)) L /\ (pos i <= N.of_nat (length L))%N.

Lemma wf_total i : wf i -> (pos i + N.of_nat (length (rest i)) = N.of_nat (length L))%N.
Proof. intros [H1 H2]. rewrite H1, skipn_length. lia. Qed.

Definition wfr {A} (r : res A) : Prop :=
  match r with
  | Ok _ i => wf i
  | Bt _ i => wf i
  | Cut _ i => wf i
  | Panic _ => True
  end.

Definition pres {A} (p : parser A) : Prop := forall i, wf i -> wfr (p i).

Lemma wf_advance n i : wf i -> n <= length (rest i) -> wf (advance n i).
Proof.
  intros H Hn. pose proof (wf_total i H) as Ht. destruct H as [H1 H2].
  unfold wf, advance. cbn [pos rest]. split; [|lia].
  rewrite H1, skipn_add. f_equal. lia.
Qed.

Lemma wf_set_depth d i : wf i -> wf (set_depth d i).
Proof. unfold wf, set_depth. cbn [pos rest]. auto. Qed.

(* ---- primitives -------------------------------------------------------------------- *)
Lemma pres_ret {A} (a : A) : pres (ret a).
Proof. intros i H. exact H. Qed.

Lemma pres_panic {A} s : pres (fun _ => @Panic A s).
Proof. intros i H. exact I. Qed.

Lemma pres_fail {A} : pres (@fail A).
Proof. intros i H. exact H. Qed.

Lemma pres_empty : pres empty.
Proof. apply pres_ret. Qed.

Lemma pres_bind {A B} (p : parser A) (f : A -> parser B) :
  pres p -> (forall a, pres (f a)) -> pres (bind p f).
Proof.
  intros Hp Hf i Hi. unfold bind. specialize (Hp i Hi).
  destruct (p i) as [a i'|e i'|e i'|s]; cbn [wfr] in *; auto. apply Hf; exact Hp.
Qed.

Lemma pres_pmap {A B} (f : A -> B) p : pres p -> pres (pmap f p).
Proof.
  intros Hp i Hi. unfold pmap. specialize (Hp i Hi). destruct (p i); cbn [wfr] in *; auto.
Qed.

Lemma pres_pvalue {A B} (b : B) (p : parser A) : pres p -> pres (pvalue b p).
Proof. apply pres_pmap. Qed.

Lemma pres_pvoid {A} (p : parser A) : pres p -> pres (pvoid p).
Proof. apply pres_pmap. Qed.

Lemma pres_any : pres any.
Proof.
  intros i Hi. unfold any. destruct (rest i) eqn:E; cbn; [exact Hi|].
  apply wf_advance; [exact Hi|rewrite E; cbn; lia].
Qed.

Lemma pres_one_of f : pres (one_of f).
Proof.
  intros i Hi. unfold one_of. destruct (rest i) eqn:E; cbn; [exact Hi|].
  destruct (f b); cbn; [|exact Hi]. apply wf_advance; [exact Hi|rewrite E; cbn; lia].
Qed.

Lemma pres_none_of f : pres (none_of f).
Proof. apply pres_one_of. Qed.

Lemma pres_byte x : pres (byte_ x).
Proof. apply pres_one_of. Qed.

Lemma strip_prefix_length l s r : strip_prefix l s = Some r -> length l <= length s.
Proof.
  intro H. apply strip_prefix_spec in H. subst. rewrite app_length. lia.
Qed.

Lemma pres_lit l : pres (lit l).
Proof.
  intros i Hi. unfold lit. destruct (strip_prefix l (rest i)) eqn:E; cbn; [|exact Hi].
  apply wf_advance; [exact Hi|eapply strip_prefix_length; exact E].
Qed.

Lemma take_upto_length f n s : length (take_upto f n s) <= length s.
Proof. destruct (take_upto_prefix f n s) as [r E]. rewrite E at 2. rewrite app_length. lia. Qed.

Lemma span_while_length f s : length (fst (span_while f s)) <= length s.
Proof.
  rewrite <- (span_while_app f s) at 2. rewrite app_length. lia.
Qed.

Lemma pres_take_while_mn m n f : pres (take_while_mn m n f).
Proof.
  intros i Hi. unfold take_while_mn.
  set (got := match n with Some n' => take_upto f n' (rest i) | None => fst (span_while f (rest i)) end).
  assert (Hg : length got <= length (rest i)).
  { unfold got. destruct n; [apply take_upto_length|apply span_while_length]. }
  destruct (Nat.ltb (length got) m); cbn; [exact Hi|]. apply wf_advance; assumption.
Qed.

Lemma pres_take_while0 f : pres (take_while0 f).
Proof. apply pres_take_while_mn. Qed.
Lemma pres_take_while1 f : pres (take_while1 f).
Proof. apply pres_take_while_mn. Qed.

Lemma pres_take_n n : pres (take_n n).
Proof.
  intros i Hi. unfold take_n. destruct (Nat.ltb (length (rest i)) n) eqn:E; cbn; [exact Hi|].
  apply Nat.ltb_ge in E. apply wf_advance; assumption.
Qed.

Lemma pres_rest : pres rest_.
Proof. intros i Hi. unfold rest_. cbn. apply wf_advance; [exact Hi|lia]. Qed.

Lemma pres_eof : pres eof.
Proof. intros i Hi. unfold eof. destruct (rest i); cbn; exact Hi. Qed.

(* ---- combinators ------------------------------------------------------------------- *)
Lemma pres_peek {A} (p : parser A) : pres p -> pres (peek p).
Proof. intros Hp i Hi. unfold peek. destruct (p i); cbn [wfr]; auto. Qed.

Lemma pres_opt {A} (p : parser A) : pres p -> pres (opt p).
Proof.
  intros Hp i Hi. unfold opt. specialize (Hp i Hi). destruct (p i); cbn [wfr] in *; auto.
Qed.

Lemma pres_cut_err {A} (p : parser A) : pres p -> pres (cut_err p).
Proof.
  intros Hp i Hi. unfold cut_err. specialize (Hp i Hi). destruct (p i); cbn [wfr] in *; auto.
Qed.

Lemma pres_alt {A} (p q : parser A) : pres p -> pres q -> pres (alt p q).
Proof.
  intros Hp Hq i Hi. unfold alt. specialize (Hp i Hi). destruct (p i); cbn [wfr] in *; auto.
Qed.

Lemma pres_context {A} (p : parser A) : pres p -> pres (context p).
Proof.
  intros Hp i Hi. unfold context. specialize (Hp i Hi). destruct (p i); cbn [wfr] in *; auto.
Qed.

Lemma pres_verify {A} (f : A -> bool) p : pres p -> pres (verify f p).
Proof.
  intros Hp i Hi. unfold verify. specialize (Hp i Hi). destruct (p i); cbn [wfr] in *; auto.
  destruct (f a); cbn [wfr]; auto.
Qed.

Lemma pres_verify_map {A B} (f : A -> option B) p : pres p -> pres (verify_map f p).
Proof.
  intros Hp i Hi. unfold verify_map. specialize (Hp i Hi). destruct (p i); cbn [wfr] in *; auto.
  destruct (f a); cbn [wfr]; auto.
Qed.

Lemma pres_try_map {A B} (f : A -> tm B) p : pres p -> pres (try_map f p).
Proof.
  intros Hp i Hi. unfold try_map. specialize (Hp i Hi). destruct (p i); cbn [wfr] in *; auto.
  destruct (f a); cbn [wfr]; auto.
Qed.

Lemma pres_cut_custom {A} c : pres (@cut_custom A c).
Proof. intros i Hi. exact Hi. Qed.

Lemma pres_span {A} (p : parser A) : pres p -> pres (span_ p).
Proof.
  intros Hp i Hi. unfold span_. specialize (Hp i Hi). destruct (p i); cbn [wfr] in *; auto.
Qed.

Lemma pres_with_span {A} (p : parser A) : pres p -> pres (with_span p).
Proof.
  intros Hp i Hi. unfold with_span. specialize (Hp i Hi). destruct (p i); cbn [wfr] in *; auto.
Qed.

Lemma pres_taken {A} (p : parser A) : pres p -> pres (taken p).
Proof.
  intros Hp i Hi. unfold taken. specialize (Hp i Hi). destruct (p i); cbn [wfr] in *; auto.
Qed.

Lemma pres_and_then {A B} (p : parser A) (inner : A -> sub B) : pres p -> pres (and_then p inner).
Proof.
  intros Hp i Hi. unfold and_then. specialize (Hp i Hi). destruct (p i); cbn [wfr] in *; auto.
  destruct (inner a); cbn [wfr]; auto.
Qed.

Lemma pres_preceded {A B} (p : parser A) (q : parser B) : pres p -> pres q -> pres (preceded p q).
Proof. intros Hp Hq. unfold preceded. apply pres_bind; auto. Qed.

Lemma pres_terminated {A B} (p : parser A) (q : parser B) : pres p -> pres q -> pres (terminated p q).
Proof.
  intros Hp Hq. unfold terminated. apply pres_bind; [exact Hp|intro a].
  apply pres_bind; [exact Hq|intro]. apply pres_ret.
Qed.

Lemma pres_delimited {A B C} (p : parser A) (q : parser B) (r : parser C) :
  pres p -> pres q -> pres r -> pres (delimited p q r).
Proof.
  intros Hp Hq Hr. unfold delimited. apply pres_bind; [exact Hp|intro].
  apply pres_bind; [exact Hq|intro]. apply pres_bind; [exact Hr|intro]. apply pres_ret.
Qed.

Lemma pres_pair {A B} (p : parser A) (q : parser B) : pres p -> pres q -> pres (pair_ p q).
Proof.
  intros Hp Hq. unfold pair_. apply pres_bind; [exact Hp|intro].
  apply pres_bind; [exact Hq|intro]. apply pres_ret.
Qed.

Lemma pres_unchecked_utf8 w p : pres p -> pres (unchecked_utf8 w p).
Proof.
  intros Hp i Hi. unfold unchecked_utf8. specialize (Hp i Hi). destruct (p i); cbn [wfr] in *; auto.
  destruct (utf8_valid_b a); cbn [wfr]; auto.
Qed.

(* ---- loops ------------------------------------------------------------------------- *)
Lemma pres_repeat0_f {A} fuel (p : parser A) : pres p -> forall acc, pres (repeat0_f fuel p acc).
Proof.
  intro Hp. induction fuel as [|f IH]; intros acc i Hi; cbn [repeat0_f]; [exact I|].
  specialize (Hp i Hi). destruct (p i) as [a i'|e i'|e i'|s]; cbn [wfr] in *; auto.
  destruct (Nat.eqb (length (rest i')) (length (rest i))); cbn [wfr]; auto. apply IH; exact Hp.
Qed.

Lemma pres_repeat0 {A} (p : parser A) : pres p -> pres (repeat0 p).
Proof. intros Hp i Hi. unfold repeat0. apply pres_repeat0_f; assumption. Qed.

Lemma pres_repeat1 {A} (p : parser A) : pres p -> pres (repeat1 p).
Proof.
  intros Hp i Hi. unfold repeat1. pose proof (Hp i Hi) as H.
  destruct (p i) as [a i'|e i'|e i'|s]; cbn [wfr] in *; auto. apply pres_repeat0_f; assumption.
Qed.

Lemma pres_separated_loop {A S} fuel (p : parser A) (sep : parser S) :
  pres p -> pres sep -> forall acc, pres (separated_loop fuel p sep acc).
Proof.
  intros Hp Hs. induction fuel as [|f IH]; intros acc i Hi; cbn [separated_loop]; [exact I|].
  pose proof (Hs i Hi) as H1. destruct (sep i) as [x i1|e i1|e i1|s]; cbn [wfr] in *; auto.
  destruct (Nat.eqb (length (rest i1)) (length (rest i))); cbn [wfr]; auto.
  pose proof (Hp i1 H1) as H2. destruct (p i1) as [a i2|e i2|e i2|s]; cbn [wfr] in *; auto.
  apply IH; exact H2.
Qed.

Lemma pres_separated0 {A S} (p : parser A) (sep : parser S) : pres p -> pres sep -> pres (separated0 p sep).
Proof.
  intros Hp Hs i Hi. unfold separated0. pose proof (Hp i Hi) as H.
  destruct (p i) as [a i'|e i'|e i'|s]; cbn [wfr] in *; auto. apply pres_separated_loop; assumption.
Qed.

Lemma pres_separated1 {A S} (p : parser A) (sep : parser S) : pres p -> pres sep -> pres (separated1 p sep).
Proof.
  intros Hp Hs i Hi. unfold separated1. pose proof (Hp i Hi) as H.
  destruct (p i) as [a i'|e i'|e i'|s]; cbn [wfr] in *; auto. apply pres_separated_loop; assumption.
Qed.

End Range.

Global Hint Resolve pres_ret pres_panic pres_fail pres_empty pres_any pres_one_of pres_none_of pres_byte
  pres_lit pres_take_while_mn pres_take_while0 pres_take_while1 pres_take_n pres_rest pres_eof
  pres_cut_custom : pres.
Global Hint Resolve pres_pmap pres_pvalue pres_pvoid pres_peek pres_opt pres_cut_err pres_alt pres_context
  pres_verify pres_verify_map pres_try_map pres_span pres_with_span pres_taken pres_and_then
  pres_preceded pres_terminated pres_delimited pres_pair pres_unchecked_utf8
  pres_repeat0 pres_repeat1 pres_separated0 pres_separated1 : pres.

(* one syntactic step of the structural argument *)
Ltac pres_step :=
  lazymatch goal with
  | |- pres _ (bind _ _) => apply pres_bind; [|intro; cbv beta]
  | |- pres _ (match ?x with _ => _ end) => destruct x
  | |- pres _ (let (_, _) := ?x in _) => destruct x
  | |- pres _ (fun _ => Panic _) => apply pres_panic
  | |- pres _ (pmap _ _) => apply pres_pmap
  | |- pres _ (pvalue _ _) => apply pres_pvalue
  | |- pres _ (pvoid _) => apply pres_pvoid
  | |- pres _ (peek _) => apply pres_peek
  | |- pres _ (opt _) => apply pres_opt
  | |- pres _ (cut_err _) => apply pres_cut_err
  | |- pres _ (alt _ _) => apply pres_alt
  | |- pres _ (context _) => apply pres_context
  | |- pres _ (verify _ _) => apply pres_verify
  | |- pres _ (verify_map _ _) => apply pres_verify_map
  | |- pres _ (try_map _ _) => apply pres_try_map
  | |- pres _ (span_ _) => apply pres_span
  | |- pres _ (with_span _) => apply pres_with_span
  | |- pres _ (taken _) => apply pres_taken
  | |- pres _ (and_then _ _) => apply pres_and_then
  | |- pres _ (preceded _ _) => apply pres_preceded
  | |- pres _ (terminated _ _) => apply pres_terminated
  | |- pres _ (delimited _ _ _) => apply pres_delimited
  | |- pres _ (pair_ _ _) => apply pres_pair
  | |- pres _ (unchecked_utf8 _ _) => apply pres_unchecked_utf8
  | |- pres _ (repeat0 _) => apply pres_repeat0
  | |- pres _ (repeat1 _) => apply pres_repeat1
  | |- pres _ (separated0 _ _) => apply pres_separated0
  | |- pres _ (separated1 _ _) => apply pres_separated1
  | |- pres _ _ => solve [auto 20 with pres]
  end.
Ltac pres_auto := repeat pres_step.

Lemma pres_eta {A} L (p : parser A) : pres L p -> pres L (fun i => p i).
Proof. intros H i Hi. apply H; exact Hi. Qed.

(* ---- Model/Trivia.v ------------------------------------------------------------------ *)
Lemma pres_ws L : pres L ws.
Proof. unfold ws. pres_auto. Qed.
Global Hint Resolve pres_ws : pres.

Lemma pres_comment L : pres L comment.
Proof. unfold comment. pres_auto. Qed.
Global Hint Resolve pres_comment : pres.

Lemma pres_newline L : pres L newline.
Proof. unfold newline. pres_auto. Qed.
Global Hint Resolve pres_newline : pres.

Lemma pres_ws_newline L : pres L ws_newline.
Proof. unfold ws_newline. pres_auto. Qed.
Global Hint Resolve pres_ws_newline : pres.

Lemma pres_ws_newlines L : pres L ws_newlines.
Proof. unfold ws_newlines. pres_auto. Qed.
Global Hint Resolve pres_ws_newlines : pres.

Lemma pres_ws_comment_newline_f L fuel : forall start, pres L (ws_comment_newline_f fuel start).
Proof.
  induction fuel as [|f IH]; intros start i Hi; cbn [ws_comment_newline_f]; [exact I|].
  pose proof (pres_ws L i Hi) as H1. destruct (ws i) as [x i1|e i1|e i1|s]; cbn [wfr] in *; auto.
  assert (Hstep : forall p : parser unit, pres L p ->
            wfr L (match p i1 with
                   | Ok _ i2 => if (pos i2 =? start)%N then Ok tt i2 else ws_comment_newline_f f (pos i2) i2
                   | Bt e i' => Bt e i'
                   | Cut e i' => Cut e i'
                   | Panic s => Panic s
                   end)).
  { intros p Hp. pose proof (Hp i1 H1) as H2. destruct (p i1) as [y i2|e i2|e i2|s]; cbn [wfr] in *; auto.
    destruct (pos i2 =? start)%N; cbn [wfr]; auto. apply IH; exact H2. }
  destruct (rest i1) as [|b r]; cbn [wfr]; auto.
  destruct (byte_eqb b x23); [apply Hstep; pres_auto|].
  destruct (byte_eqb b x0a); [apply Hstep; pres_auto|].
  destruct (byte_eqb b x0d); [apply Hstep; pres_auto|]. cbn [wfr]; auto.
Qed.

Lemma pres_ws_comment_newline L : pres L ws_comment_newline.
Proof. intros i Hi. unfold ws_comment_newline. apply pres_ws_comment_newline_f; exact Hi. Qed.
Global Hint Resolve pres_ws_comment_newline : pres.

Lemma pres_line_ending L : pres L line_ending.
Proof. unfold line_ending. pres_auto. Qed.
Global Hint Resolve pres_line_ending : pres.

Lemma pres_line_trailing L : pres L line_trailing.
Proof. unfold line_trailing. pres_auto. Qed.
Global Hint Resolve pres_line_trailing : pres.

(* ---- Model/Strings.v ----------------------------------------------------------------- *)
Lemma pres_from_utf8 L p : pres L p -> pres L (from_utf8 p).
Proof. intro H. unfold from_utf8. pres_auto. Qed.
Global Hint Resolve pres_from_utf8 : pres.

Lemma pres_hexescape L n : pres L (hexescape n).
Proof. unfold hexescape. pres_auto. Qed.
Global Hint Resolve pres_hexescape : pres.

Lemma pres_escape_seq_char L : pres L escape_seq_char.
Proof. unfold escape_seq_char. pres_auto. Qed.
Global Hint Resolve pres_escape_seq_char : pres.

Lemma pres_escaped L : pres L escaped.
Proof. unfold escaped. pres_auto. Qed.
Global Hint Resolve pres_escaped : pres.

Lemma pres_basic_chars L : pres L basic_chars.
Proof. unfold basic_chars. pres_auto. Qed.
Global Hint Resolve pres_basic_chars : pres.

Lemma pres_chunks_f L fuel p : pres L p -> forall acc, pres L (chunks_f fuel p acc).
Proof.
  intro Hp. induction fuel as [|f IH]; intros acc i Hi; cbn [chunks_f]; [exact I|].
  specialize (Hp i Hi). destruct (p i) as [a i'|e i'|e i'|s]; cbn [wfr] in *; auto.
  destruct (Nat.eqb (length (rest i')) (length (rest i))); cbn [wfr]; auto. apply IH; exact Hp.
Qed.

Lemma pres_chunks L p : pres L p -> pres L (chunks p).
Proof. intros Hp i Hi. unfold chunks. apply pres_chunks_f; assumption. Qed.
Global Hint Resolve pres_chunks : pres.

Lemma pres_basic_string L : pres L basic_string.
Proof. unfold basic_string. pres_auto. Qed.
Global Hint Resolve pres_basic_string : pres.

Lemma pres_mlb_escaped_nl L : pres L mlb_escaped_nl.
Proof. unfold mlb_escaped_nl. pres_auto. Qed.
Global Hint Resolve pres_mlb_escaped_nl : pres.

Lemma pres_mlb_content L : pres L mlb_content.
Proof. unfold mlb_content. pres_auto. Qed.
Global Hint Resolve pres_mlb_content : pres.

Lemma pres_quotes2 L q term : pres L term -> pres L (quotes2 q term).
Proof.
  intros Ht i Hi. unfold quotes2.
  assert (H1 : pres L (unchecked_utf8 3 (terminated (lit [q; q]) (peek term)))) by pres_auto.
  assert (H2 : pres L (unchecked_utf8 3 (terminated (lit [q]) (peek term)))) by pres_auto.
  specialize (H1 i Hi). destruct (unchecked_utf8 3 (terminated (lit [q; q]) (peek term)) i); cbn [wfr] in *; auto.
Qed.
Global Hint Resolve pres_quotes2 : pres.

Lemma pres_mlb_quote_loop L fuel : forall acc, pres L (mlb_quote_loop fuel acc).
Proof.
  induction fuel as [|f IH]; intros acc i Hi; cbn [mlb_quote_loop]; [exact I|].
  assert (H1 : pres L (opt (quotes2 x22 (pvoid (none_of (byte_eqb x22)))))) by pres_auto.
  specialize (H1 i Hi).
  destruct (opt (quotes2 x22 (pvoid (none_of (byte_eqb x22)))) i) as [[qi|] i1|e i1|e i1|s]; cbn [wfr] in *; auto.
  assert (H2 : pres L (opt mlb_content)) by pres_auto. specialize (H2 i1 H1).
  destruct (opt mlb_content i1) as [[ci|] i2|e i2|e i2|s]; cbn [wfr] in *; auto.
  assert (H3 : pres L (chunks mlb_content)) by pres_auto. specialize (H3 i2 H2).
  destruct (chunks mlb_content i2) as [more i3|e i3|e i3|s]; cbn [wfr] in *; auto.
  apply IH; exact H3.
Qed.

Lemma pres_ml_basic_body L : pres L ml_basic_body.
Proof.
  unfold ml_basic_body. apply pres_eta. apply pres_bind; [pres_auto|intro c].
  apply pres_bind; [|intro; pres_auto].
  intros j Hj. apply pres_mlb_quote_loop; exact Hj.
Qed.
Global Hint Resolve pres_ml_basic_body : pres.

Lemma pres_ml_basic_string L : pres L ml_basic_string.
Proof. unfold ml_basic_string. pres_auto. Qed.
Global Hint Resolve pres_ml_basic_string : pres.

Lemma pres_literal_string L : pres L literal_string.
Proof. unfold literal_string. apply pres_context, pres_from_utf8. pres_auto. Qed.
Global Hint Resolve pres_literal_string : pres.

Lemma pres_mll_content L : pres L mll_content.
Proof. unfold mll_content. pres_auto. Qed.
Global Hint Resolve pres_mll_content : pres.

Lemma pres_ml_literal_body L : pres L ml_literal_body.
Proof. unfold ml_literal_body. apply pres_from_utf8, pres_taken. pres_auto. Qed.
Global Hint Resolve pres_ml_literal_body : pres.

Lemma pres_ml_literal_string L : pres L ml_literal_string.
Proof. unfold ml_literal_string. pres_auto. Qed.
Global Hint Resolve pres_ml_literal_string : pres.

Lemma pres_string L : pres L string_.
Proof. unfold string_. pres_auto. Qed.
Global Hint Resolve pres_string : pres.

(* ---- Model/Datetime.v ---------------------------------------------------------------- *)
Lemma pres_unsigned_digits L m n : pres L (unsigned_digits m n).
Proof. unfold unsigned_digits. pres_auto. Qed.
Global Hint Resolve pres_unsigned_digits : pres.

Lemma pres_date_fullyear L : pres L date_fullyear.
Proof. unfold date_fullyear. pres_auto. Qed.
Global Hint Resolve pres_date_fullyear : pres.

Lemma pres_two_digit_field L lo hi : pres L (two_digit_field lo hi).
Proof. unfold two_digit_field. pres_auto. Qed.
Global Hint Resolve pres_two_digit_field : pres.

Lemma pres_date_month L : pres L date_month. Proof. apply pres_two_digit_field. Qed.
Lemma pres_date_mday L : pres L date_mday. Proof. apply pres_two_digit_field. Qed.
Lemma pres_time_hour L : pres L time_hour. Proof. apply pres_two_digit_field. Qed.
Lemma pres_time_minute L : pres L time_minute. Proof. apply pres_two_digit_field. Qed.
Lemma pres_time_second L : pres L time_second. Proof. apply pres_two_digit_field. Qed.
Global Hint Resolve pres_date_month pres_date_mday pres_time_hour pres_time_minute pres_time_second : pres.

Lemma pres_full_date L : pres L full_date.
Proof.
  unfold full_date. apply pres_eta.
  apply pres_bind; [pres_auto|intro y]. apply pres_bind; [pres_auto|intros _].
  apply pres_bind; [pres_auto|intro m]. apply pres_bind; [pres_auto|intros _].
  intros day_start Hds. cbv beta.
  refine (pres_bind L _ _ _ _ day_start Hds); [pres_auto|intro d].
  destruct (max_days DT_MAXDAYS m (is_leap_year y) <? d)%N; [|pres_auto].
  intros j Hj. exact Hds.
Qed.
Global Hint Resolve pres_full_date : pres.

Lemma pres_time_secfrac L : pres L time_secfrac.
Proof. unfold time_secfrac. pres_auto. Qed.
Global Hint Resolve pres_time_secfrac : pres.

Lemma pres_partial_time L : pres L partial_time.
Proof. unfold partial_time. pres_auto. Qed.
Global Hint Resolve pres_partial_time : pres.

Lemma pres_time_offset L : pres L time_offset.
Proof. unfold time_offset. pres_auto. Qed.
Global Hint Resolve pres_time_offset : pres.

Lemma pres_time_delim L : pres L time_delim.
Proof. unfold time_delim. pres_auto. Qed.
Global Hint Resolve pres_time_delim : pres.

Lemma pres_date_time L : pres L date_time.
Proof. unfold date_time. pres_auto. Qed.
Global Hint Resolve pres_date_time : pres.

(* ---- Model/Numbers.v ----------------------------------------------------------------- *)
Lemma pres_bool_lit L l v : pres L (bool_lit l v).
Proof. unfold bool_lit. pres_auto. Qed.
Global Hint Resolve pres_bool_lit : pres.
Lemma pres_true L : pres L true_. Proof. apply pres_bool_lit. Qed.
Lemma pres_false L : pres L false_. Proof. apply pres_bool_lit. Qed.
Lemma pres_digit L : pres L digit. Proof. apply pres_one_of. Qed.
Lemma pres_hexdig L : pres L hexdig. Proof. apply pres_one_of. Qed.
Global Hint Resolve pres_true pres_false pres_digit pres_hexdig : pres.

Lemma pres_digits_us L first d : pres L first -> pres L d -> pres L (digits_us first d).
Proof. intros H1 H2. unfold digits_us. pres_auto. Qed.
Global Hint Resolve pres_digits_us : pres.

Lemma pres_dec_int L : pres L dec_int.
Proof. unfold dec_int. pres_auto. Qed.
Global Hint Resolve pres_dec_int : pres.

Lemma pres_prefixed_int L w pre d : pres L d -> pres L (prefixed_int w pre d).
Proof. intro H. unfold prefixed_int. pres_auto. Qed.
Global Hint Resolve pres_prefixed_int : pres.

Lemma pres_hex_int L : pres L hex_int. Proof. unfold hex_int. pres_auto. Qed.
Lemma pres_oct_int L : pres L oct_int. Proof. unfold oct_int. pres_auto. Qed.
Lemma pres_bin_int L : pres L bin_int. Proof. unfold bin_int. pres_auto. Qed.
Global Hint Resolve pres_hex_int pres_oct_int pres_bin_int : pres.

Lemma pres_integer L : pres L integer.
Proof.
  intros i Hi. unfold integer. cbv zeta.
  destruct (bytes_eqb (firstn 2 (rest i)) [x30; x78]).
  { assert (H : pres L (cut_err (try_map (int_of 16) hex_int))) by pres_auto. apply H; exact Hi. }
  destruct (bytes_eqb (firstn 2 (rest i)) [x30; x6f]).
  { assert (H : pres L (cut_err (try_map (int_of 8) oct_int))) by pres_auto. apply H; exact Hi. }
  destruct (bytes_eqb (firstn 2 (rest i)) [x30; x62]).
  { assert (H : pres L (cut_err (try_map (int_of 2) bin_int))) by pres_auto. apply H; exact Hi. }
  apply pres_and_then; [pres_auto|exact Hi].
Qed.
Global Hint Resolve pres_integer : pres.

Lemma pres_zero_prefixable_int L : pres L zero_prefixable_int.
Proof. unfold zero_prefixable_int. pres_auto. Qed.
Global Hint Resolve pres_zero_prefixable_int : pres.
Lemma pres_frac L : pres L frac. Proof. unfold frac. pres_auto. Qed.
Global Hint Resolve pres_frac : pres.
Lemma pres_exp L : pres L exp. Proof. unfold exp. pres_auto. Qed.
Global Hint Resolve pres_exp : pres.
Lemma pres_float_ L : pres L float_. Proof. unfold float_. pres_auto. Qed.
Global Hint Resolve pres_float_ : pres.
Lemma pres_inf L : pres L inf. Proof. unfold inf. pres_auto. Qed.
Lemma pres_nan L : pres L nan. Proof. unfold nan. pres_auto. Qed.
Global Hint Resolve pres_inf pres_nan : pres.
Lemma pres_special_float L : pres L special_float.
Proof. unfold special_float. pres_auto. Qed.
Global Hint Resolve pres_special_float : pres.
Lemma pres_float L : pres L float. Proof. unfold float. pres_auto. Qed.
Global Hint Resolve pres_float : pres.

(* ---- Model/Parse.v ------------------------------------------------------------------- *)
Lemma pres_unquoted_key L : pres L unquoted_key.
Proof. unfold unquoted_key. pres_auto. Qed.
Global Hint Resolve pres_unquoted_key : pres.

Lemma pres_simple_key L : pres L simple_key.
Proof. unfold simple_key. pres_auto. Qed.
Global Hint Resolve pres_simple_key : pres.

Lemma pres_key_part L : pres L key_part.
Proof. unfold key_part. pres_auto. Qed.
Global Hint Resolve pres_key_part : pres.

Lemma pres_key L : pres L key_.
Proof. unfold key_. pres_auto. Qed.
Global Hint Resolve pres_key : pres.

Lemma pres_check_recursion L {A} (p : parser A) : pres L p -> pres L (check_recursion p).
Proof.
  intros Hp i Hi. unfold check_recursion. cbv zeta.
  assert (H1 : wf L (set_depth (S (depth i)) i)) by (apply wf_set_depth; exact Hi).
  destruct (Nat.leb LIMIT (depth (set_depth (S (depth i)) i))); cbn [wfr]; auto.
  specialize (Hp _ H1). destruct (p (set_depth (S (depth i)) i)) as [a i2|e i2|e i2|s]; cbn [wfr] in *; auto.
  destruct (depth i2); cbn [wfr]; auto; try (apply wf_set_depth; exact Hp).
Qed.
Global Hint Resolve pres_check_recursion : pres.

Section KnotRange.
  Variable L : bytes.
  Variable value_rec : parser value.
  Hypothesis Hrec : pres L value_rec.

  Lemma pres_array_value : pres L (array_value value_rec).
  Proof. unfold array_value. pres_auto. Qed.

  Lemma pres_array_values : pres L (array_values value_rec).
  Proof. pose proof pres_array_value. unfold array_values. pres_auto. Qed.

  Lemma pres_array : pres L (array value_rec).
  Proof. pose proof pres_array_values. unfold array. pres_auto. Qed.

  Lemma pres_inline_keyval : pres L (inline_keyval value_rec).
  Proof. unfold inline_keyval. pres_auto. Qed.

  Lemma pres_inline_table : pres L (inline_table value_rec).
  Proof. pose proof pres_inline_keyval. unfold inline_table. pres_auto. Qed.

  Lemma pres_value_body : pres L (value_body value_rec).
  Proof.
    pose proof pres_array. pose proof pres_inline_table. unfold value_body. pres_auto.
  Qed.

  Lemma pres_value_step : pres L (value_step value_rec).
  Proof. pose proof pres_value_body. unfold value_step. pres_auto. Qed.
End KnotRange.

Lemma pres_value_f L fuel : pres L (value_f fuel).
Proof.
  induction fuel as [|f IH]; cbn [value_f]; [apply pres_panic|].
  apply pres_eta. apply pres_value_step; exact IH.
Qed.

Lemma pres_value L : pres L value_.
Proof. intros i Hi. unfold value_. apply pres_value_f; exact Hi. Qed.
Global Hint Resolve pres_value : pres.

(* ---- Model/Document.v ---------------------------------------------------------------- *)
Lemma pres_parse_keyval L : pres L parse_keyval.
Proof. unfold parse_keyval. pres_auto. Qed.
Global Hint Resolve pres_parse_keyval : pres.

Lemma pres_keyval L st : pres L (keyval st).
Proof. unfold keyval. pres_auto. Qed.
Global Hint Resolve pres_keyval : pres.

Lemma pres_header L a st : pres L (header a st).
Proof. unfold header. cbv zeta. destruct a; pres_auto. Qed.
Global Hint Resolve pres_header : pres.

Lemma pres_table L st : pres L (table st).
Proof. unfold table. pres_auto. Qed.
Global Hint Resolve pres_table : pres.

Lemma pres_parse_comment L st : pres L (parse_comment st).
Proof. unfold parse_comment. pres_auto. Qed.
Lemma pres_parse_ws L st : pres L (parse_ws st).
Proof. unfold parse_ws. pres_auto. Qed.
Lemma pres_parse_newline L st : pres L (parse_newline st).
Proof. unfold parse_newline. pres_auto. Qed.
Global Hint Resolve pres_parse_comment pres_parse_ws pres_parse_newline : pres.

Lemma pres_doc_line L st : pres L (doc_line st).
Proof. unfold doc_line. pres_auto. Qed.
Global Hint Resolve pres_doc_line : pres.

Lemma pres_doc_loop L fuel : forall st, pres L (doc_loop fuel st).
Proof.
  induction fuel as [|f IH]; intros st i Hi; cbn [doc_loop]; [exact I|].
  pose proof (pres_doc_line L st i Hi) as H. destruct (doc_line st i) as [st' i'|e i'|e i'|s]; cbn [wfr] in *; auto.
  destruct (Nat.eqb (length (rest i')) (length (rest i))); cbn [wfr]; auto. apply IH; exact H.
Qed.

Lemma pres_document L : pres L document.
Proof.
  unfold document. apply pres_bind; [pres_auto|intros _]. apply pres_bind; [pres_auto|intro st].
  apply pres_bind; [|intro; pres_auto]. intros i Hi. apply pres_doc_loop; exact Hi.
Qed.

(* ---- Parser::parse ------------------------------------------------------------------- *)
Lemma wf_new_input s : wf s (new_input s).
Proof. unfold wf, new_input. cbn [pos rest]. split; [reflexivity|lia]. Qed.

Lemma parse_all_range {A} (p : parser A) s e at_ :
  pres s p -> parse_all p s = Failed e at_ -> (at_ <= N.of_nat (length s))%N.
Proof.
  intros Hp. unfold parse_all.
  assert (H : pres s (a <- p ;; eof ;;; ret a)) by pres_auto.
  specialize (H _ (wf_new_input s)).
  destruct ((a <- p ;; eof ;;; ret a) (new_input s)) as [a i|e' i|e' i|st]; cbn [wfr] in H;
    intro E; inversion E; subst; destruct H as [_ H]; exact H.
Qed.

Lemma document_offset_in_range s e at_ :
  parse_document s = PErr e (Some at_) -> (at_ <= N.of_nat (length s))%N.
Proof.
  unfold parse_document. destruct (parse_all document s) as [st|e' at'|p] eqn:E.
  - destruct (finalize_table st) as [st'|c|p]; discriminate.
  - intro H. injection H as -> ->. eapply parse_all_range; [apply pres_document|exact E].
  - discriminate.
Qed.

Lemma lift_outcome_range {A} (p : parser A) s e at_ :
  pres s p -> lift_outcome (parse_all p s) = PErr e (Some at_) ->
  (at_ <= N.of_nat (length s))%N.
Proof.
  intros Hp. destruct (parse_all p s) as [a|e' at'|st] eqn:E; cbn [lift_outcome]; try discriminate.
  intro H. injection H as -> ->. eapply parse_all_range; eassumption.
Qed.

Lemma value_offset_in_range s e at_ :
  parse_value_raw s = PErr e (Some at_) -> (at_ <= N.of_nat (length s))%N.
Proof.
  unfold parse_value_raw. intro H. apply lift_eoi_err in H as (e0 & H & _). revert H.
  apply lift_outcome_range, pres_value.
Qed.

Lemma key_offset_in_range s e at_ :
  parse_key s = PErr e (Some at_) -> (at_ <= N.of_nat (length s))%N.
Proof.
  unfold parse_key. intro H. apply lift_eoi_err in H as (e0 & H & _). revert H.
  apply lift_outcome_range, pres_simple_key.
Qed.

Lemma key_path_offset_in_range s e at_ :
  parse_key_path s = PErr e (Some at_) -> (at_ <= N.of_nat (length s))%N.
Proof.
  unfold parse_key_path. intro H. apply lift_eoi_err in H as (e0 & H & _). revert H.
  apply lift_outcome_range, pres_key.
Qed.
