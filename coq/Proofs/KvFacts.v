(* Proofs/KvFacts.v — the laws of the association lists of Model/Tree.v: what `kv_get` finds after
   `kv_set` / `kv_push` / `kv_remove`, how the updates compose, what they do to the list of keys, and that a
   property of every entry (as `Forall`, as `forallb`, or as `all_P` of Spec/WF.v) survives them. *)
From TV Require Import Base.Prelude Model.Tree Spec.WF.
From Coq Require Import Permutation.

(* ---- kv_get --------------------------------------------------------------------------------------------------- *)
Lemma kv_get_In m k k' it : kv_get m k = Some (k', it) -> In (k', it) m.
Proof.
  induction m as [|[k1 v1] m IH]; cbn [kv_get]; [discriminate|]. destruct (bytes_eqb (k_key k1) k); [|right; apply IH; assumption].
  intro H. injection H as <- <-. left. reflexivity.
Qed.

Lemma kv_get_key m k k' it : kv_get m k = Some (k', it) -> k_key k' = k.
Proof.
  induction m as [|[k1 v1] m IH]; cbn [kv_get]; [discriminate|]. destruct (bytes_eqb (k_key k1) k) eqn:E; [|exact IH].
  intro H. injection H as <- _. apply bytes_eqb_eq, E.
Qed.

Lemma kv_get_none_iff m k : kv_get m k = None <-> ~ In k (kkeys m).
Proof.
  induction m as [|[k1 v1] m IH]; cbn [kv_get kkeys map In fst]; [tauto|]. destruct (bytes_eqb (k_key k1) k) eqn:E.
  - apply bytes_eqb_eq in E. split; [discriminate|]. intro H. exfalso. apply H. left. exact E.
  - fold (kkeys m). rewrite IH. split; [intros H [H1|H1]; [apply bytes_eqb_eq in H1; congruence|tauto]|tauto].
Qed.

Lemma kv_get_app A B k : kv_get (A ++ B) k = match kv_get A k with Some x => Some x | None => kv_get B k end.
Proof. induction A as [|[k1 v1] A IH]; [reflexivity|]. cbn [app kv_get]. destruct (bytes_eqb (k_key k1) k); [reflexivity|exact IH]. Qed.
Lemma kv_get_app_some A B k x : kv_get A k = Some x -> kv_get (A ++ B) k = Some x.
Proof. intro H. rewrite kv_get_app, H. reflexivity. Qed.
Lemma kv_get_app_none A B k : kv_get A k = None -> kv_get (A ++ B) k = kv_get B k.
Proof. intro H. rewrite kv_get_app, H. reflexivity. Qed.

(* the entry found splits the list, and `kv_set` / `kv_remove` act at the split *)
Lemma kv_get_split m k k0 it : kv_get m k = Some (k0, it) ->
  exists A B, m = A ++ (k0, it) :: B /\ kv_get A k = None
              /\ (forall it', kv_set m k it' = A ++ (k0, it') :: B) /\ kv_remove m k = A ++ B.
Proof.
  induction m as [|[k1 v1] m IH]; cbn [kv_get]; [discriminate|]. destruct (bytes_eqb (k_key k1) k) eqn:E.
  - intro H. injection H as <- <-. exists [], m. cbn [app kv_set kv_remove kv_get]. rewrite E. repeat split; reflexivity.
  - intro H. destruct (IH H) as (A & B & -> & Hn & Hs & Hr). exists ((k1, v1) :: A), B. cbn [app kv_set kv_remove kv_get]. rewrite E.
    split; [reflexivity|]. split; [exact Hn|]. split; [intro it'; rewrite Hs; reflexivity|rewrite Hr; reflexivity].
Qed.

(* ---- kv_get after an update ------------------------------------------------------------------------------------- *)
(* kv_set keeps the key of the entry it replaces *)
Lemma kv_get_set_same m k k' it v : kv_get m k = Some (k', it) -> kv_get (kv_set m k v) k = Some (k', v).
Proof.
  induction m as [|[k1 v1] m IH]; cbn [kv_get kv_set]; [discriminate|].
  destruct (bytes_eqb (k_key k1) k) eqn:E; cbn [kv_get]; rewrite E; [|exact IH]. intro H. injection H as <- _. reflexivity.
Qed.
Lemma kv_get_set_other m k k2 v : bytes_eqb k k2 = false -> kv_get (kv_set m k v) k2 = kv_get m k2.
Proof.
  intro N. induction m as [|[k1 v1] m IH]; [reflexivity|]. cbn [kv_set]. destruct (bytes_eqb (k_key k1) k) eqn:E; cbn [kv_get].
  - apply bytes_eqb_eq in E. rewrite E, N. reflexivity.
  - rewrite IH. reflexivity.
Qed.
Lemma kv_get_set_none m k v k2 : kv_get m k2 = None -> kv_get (kv_set m k v) k2 = None.
Proof.
  induction m as [|[k1 v1] m IH]; [reflexivity|]. cbn [kv_set kv_get].
  destruct (bytes_eqb (k_key k1) k2) eqn:E2; [discriminate|]. intro H.
  destruct (bytes_eqb (k_key k1) k); cbn [kv_get]; rewrite E2; [exact H|exact (IH H)].
Qed.

Lemma kv_get_push_new m kk v : kv_get m (k_key kk) = None -> kv_get (kv_push m kk v) (k_key kk) = Some (kk, v).
Proof. intro H. unfold kv_push. rewrite (kv_get_app_none _ _ _ H). cbn [kv_get]. rewrite bytes_eqb_refl. reflexivity. Qed.
Lemma kv_get_push_found m kk v k r : kv_get m k = Some r -> kv_get (kv_push m kk v) k = Some r.
Proof. apply kv_get_app_some. Qed.
Lemma kv_get_push_other m kk v k2 : bytes_eqb (k_key kk) k2 = false -> kv_get (kv_push m kk v) k2 = kv_get m k2.
Proof. intro N. unfold kv_push. rewrite kv_get_app. cbn [kv_get]. rewrite N. destruct (kv_get m k2); reflexivity. Qed.

Lemma kv_get_remove_other m k k2 : bytes_eqb k k2 = false -> kv_get (kv_remove m k) k2 = kv_get m k2.
Proof.
  intro N. induction m as [|[k1 v1] m IH]; [reflexivity|]. cbn [kv_remove kv_get]. destruct (bytes_eqb (k_key k1) k) eqn:E.
  - apply bytes_eqb_eq in E. rewrite E, N. reflexivity.
  - cbn [kv_get]. rewrite IH. reflexivity.
Qed.

(* ---- updates composed ------------------------------------------------------------------------------------------- *)
Lemma kv_set_set m k x y : kv_set (kv_set m k x) k y = kv_set m k y.
Proof.
  induction m as [|[k1 v1] m IH]; [reflexivity|]. cbn [kv_set]. destruct (bytes_eqb (k_key k1) k) eqn:E; cbn [kv_set]; rewrite E.
  - reflexivity.
  - rewrite IH. reflexivity.
Qed.
Lemma kv_set_comm m k1 k2 x y : bytes_eqb k1 k2 = false -> kv_set (kv_set m k1 x) k2 y = kv_set (kv_set m k2 y) k1 x.
Proof.
  intro N. induction m as [|[k0 v0] m IH]; [reflexivity|]. cbn [kv_set].
  destruct (bytes_eqb (k_key k0) k1) eqn:E1, (bytes_eqb (k_key k0) k2) eqn:E2; cbn [kv_set]; rewrite ?E1, ?E2; try reflexivity.
  - apply bytes_eqb_eq in E1, E2. subst k1 k2. rewrite bytes_eqb_refl in N. discriminate.
  - rewrite IH. reflexivity.
Qed.
Lemma kv_set_app_r A B k v : kv_get A k = None -> kv_set (A ++ B) k v = A ++ kv_set B k v.
Proof.
  induction A as [|[k1 v1] A IH]; [reflexivity|]. cbn [app kv_get kv_set]. destruct (bytes_eqb (k_key k1) k); [discriminate|].
  intro H. rewrite (IH H). reflexivity.
Qed.
Lemma kv_set_push_none m kk x y : kv_get m (k_key kk) = None -> kv_set (kv_push m kk x) (k_key kk) y = kv_push m kk y.
Proof. intro H. unfold kv_push. rewrite (kv_set_app_r _ _ _ _ H). cbn [kv_set]. rewrite bytes_eqb_refl. reflexivity. Qed.
Lemma kv_set_push_found m kk x k y r : kv_get m k = Some r -> kv_set (kv_push m kk x) k y = kv_push (kv_set m k y) kk x.
Proof.
  unfold kv_push. induction m as [|[k1 v1] m IH]; cbn [kv_get kv_set app]; [discriminate|].
  destruct (bytes_eqb (k_key k1) k); [reflexivity|]. intro H. rewrite (IH H). reflexivity.
Qed.
(* replacing an item by one with the same image leaves the image of the list as it was *)
Lemma kv_set_map {B} (g : key * item -> B) m k k' it v :
  kv_get m k = Some (k', it) -> g (k', v) = g (k', it) -> map g (kv_set m k v) = map g m.
Proof.
  intros G H. destruct (kv_get_split m k k' it G) as (A & C & -> & _ & -> & _). rewrite !map_app. cbn [map]. rewrite H. reflexivity.
Qed.
Lemma kv_set_nonempty m k k0 it v : kv_get m k = Some (k0, it) -> kv_set m k v <> [].
Proof. destruct m as [|[k1 v1] m]; cbn [kv_get kv_set]; [discriminate|]. destruct (bytes_eqb (k_key k1) k); discriminate. Qed.

(* ---- the keys --------------------------------------------------------------------------------------------------- *)
Lemma kkeys_push m k v : kkeys (kv_push m k v) = kkeys m ++ [k_key k].
Proof. unfold kkeys, kv_push. rewrite map_app. reflexivity. Qed.
Lemma kkeys_set m k v : kkeys (kv_set m k v) = kkeys m.
Proof.
  induction m as [|[k1 v1] m IH]; [reflexivity|]. cbn [kv_set]. destruct (bytes_eqb (k_key k1) k); [reflexivity|].
  unfold kkeys in *. cbn [map fst]. rewrite IH. reflexivity.
Qed.
Lemma kkeys_remove_In x m k : In x (kkeys (kv_remove m k)) -> In x (kkeys m).
Proof.
  unfold kkeys. induction m as [|[k1 v1] m IH]; cbn [kv_remove map In]; [tauto|].
  destruct (bytes_eqb (k_key k1) k); cbn [map In]; [tauto|]. intros [H|H]; auto.
Qed.
Lemma kkeys_nonnil m m' : kkeys m' = kkeys m -> m <> [] -> m' <> [].
Proof. intros K Hn ->. apply Hn. destruct m; [reflexivity|discriminate]. Qed.

Lemma NoDup_kkeys_push m k v : NoDup (kkeys m) -> kv_get m (k_key k) = None -> NoDup (kkeys (kv_push m k v)).
Proof.
  intros Hn Hg. rewrite kkeys_push. apply (Permutation_NoDup (Permutation_cons_append _ _)).
  constructor; [apply kv_get_none_iff, Hg|exact Hn].
Qed.
Lemma NoDup_kkeys_remove m k : NoDup (kkeys m) -> NoDup (kkeys (kv_remove m k)).
Proof.
  induction m as [|[k1 v1] m IH]; cbn [kv_remove]; intro H; [constructor|]. inversion H as [|? ? Hn Hc]; subst.
  destruct (bytes_eqb (k_key k1) k); [exact Hc|]. constructor; [|apply IH; exact Hc].
  intro Hin. apply Hn. eapply kkeys_remove_In; exact Hin.
Qed.
(* with distinct keys, removing the entry found removes the key *)
Lemma kv_get_remove_same m k k0 it : NoDup (kkeys m) -> kv_get m k = Some (k0, it) -> kv_get (kv_remove m k) k = None.
Proof.
  intros Hn Hg. pose proof (kv_get_key _ _ _ _ Hg) as Ek. destruct (kv_get_split m k k0 it Hg) as (A & B & -> & _ & _ & ->).
  unfold kkeys in Hn. rewrite map_app in Hn. cbn [map fst] in Hn. apply NoDup_remove_2 in Hn.
  apply kv_get_none_iff. unfold kkeys. rewrite map_app, <- Ek. exact Hn.
Qed.

(* ---- a property of every entry ---------------------------------------------------------------------------------- *)
Lemma all_P_Forall {A} (P : A -> Prop) l : all_P P l <-> Forall P l.
Proof.
  induction l as [|x l IH]; cbn [all_P]; [split; constructor|]. rewrite IH. split.
  - intros [H1 H2]. constructor; assumption.
  - intro H. inversion H; subst. split; assumption.
Qed.

Lemma all_P_In {A} (P : A -> Prop) l x : all_P P l -> In x l -> P x.
Proof. rewrite all_P_Forall, Forall_forall. auto. Qed.
Lemma all_P_forall {A} (P : A -> Prop) l : (forall x, In x l -> P x) -> all_P P l.
Proof. rewrite all_P_Forall, Forall_forall. auto. Qed.
Lemma all_P_impl {A} (P Q : A -> Prop) l : (forall x, P x -> Q x) -> all_P P l -> all_P Q l.
Proof. intro H. rewrite !all_P_Forall. apply Forall_impl, H. Qed.
Lemma all_P_app {A} (P : A -> Prop) a b : all_P P (a ++ b) <-> all_P P a /\ all_P P b.
Proof. rewrite !all_P_Forall. apply Forall_app. Qed.
Lemma all_P_map {A B} (f : A -> B) (P : B -> Prop) l : all_P P (map f l) <-> all_P (fun x => P (f x)) l.
Proof. rewrite !all_P_Forall. apply Forall_map. Qed.

Section Entries.
  Variable Q : key * item -> Prop.
  Lemma kv_get_Forall m k k' it : Forall Q m -> kv_get m k = Some (k', it) -> Q (k', it).
  Proof. intros H E. exact (proj1 (Forall_forall Q m) H _ (kv_get_In _ _ _ _ E)). Qed.
  Lemma kv_push_Forall m k v : Forall Q m -> Q (k, v) -> Forall Q (kv_push m k v).
  Proof. intros H1 H2. apply Forall_app. split; [exact H1|constructor; [exact H2|constructor]]. Qed.
  (* the new item need only be right under the key that `kv_set` keeps, and in place of the item it replaces *)
  Lemma kv_set_Forall m k v :
    Forall Q m -> (forall k' old, kv_get m k = Some (k', old) -> Q (k', old) -> Q (k', v)) -> Forall Q (kv_set m k v).
  Proof.
    intros H Hv. induction H as [|[k1 v1] m H1 Hm IH]; [constructor|]. cbn [kv_set kv_get] in *.
    destruct (bytes_eqb (k_key k1) k); constructor; auto. exact (Hv k1 v1 eq_refl H1).
  Qed.
  Lemma kv_remove_Forall m k : Forall Q m -> Forall Q (kv_remove m k).
  Proof.
    induction 1 as [|[k1 v1] m H1 Hm IH]; [constructor|]. cbn [kv_remove]. destruct (bytes_eqb (k_key k1) k); [exact Hm|].
    constructor; assumption.
  Qed.

  Lemma all_P_get m k k' it : all_P Q m -> kv_get m k = Some (k', it) -> Q (k', it).
  Proof. rewrite all_P_Forall. apply kv_get_Forall. Qed.
  Lemma all_P_push m k v : all_P Q m -> Q (k, v) -> all_P Q (kv_push m k v).
  Proof. rewrite !all_P_Forall. apply kv_push_Forall. Qed.
  Lemma all_P_set_gen m k v :
    all_P Q m -> (forall k' old, kv_get m k = Some (k', old) -> Q (k', old) -> Q (k', v)) -> all_P Q (kv_set m k v).
  Proof. rewrite !all_P_Forall. apply kv_set_Forall. Qed.
  Lemma all_P_set m k k' it v : all_P Q m -> kv_get m k = Some (k', it) -> Q (k', v) -> all_P Q (kv_set m k v).
  Proof. intros H G Hv. apply all_P_set_gen; [exact H|]. intros k1 old E _. rewrite G in E. injection E as <- _. exact Hv. Qed.
  Lemma all_P_remove m k : all_P Q m -> all_P Q (kv_remove m k).
  Proof. rewrite !all_P_Forall. apply kv_remove_Forall. Qed.
End Entries.

Section EntriesB.
  Variable P : key * item -> bool.
  Let Q kv := P kv = true.
  Let fb m : forallb P m = true <-> Forall Q m.
  Proof. rewrite forallb_forall, Forall_forall. reflexivity. Qed.
  Lemma kv_get_forallb m k k' it : forallb P m = true -> kv_get m k = Some (k', it) -> P (k', it) = true.
  Proof. rewrite fb. apply (kv_get_Forall Q). Qed.
  Lemma kv_push_forallb m k v : forallb P m = true -> P (k, v) = true -> forallb P (kv_push m k v) = true.
  Proof. rewrite !fb. apply (kv_push_Forall Q). Qed.
  Lemma kv_set_forallb m k v :
    forallb P m = true -> (forall k' old, kv_get m k = Some (k', old) -> P (k', old) = true -> P (k', v) = true) ->
    forallb P (kv_set m k v) = true.
  Proof. rewrite !fb. apply (kv_set_Forall Q). Qed.
  Lemma kv_remove_forallb m k : forallb P m = true -> forallb P (kv_remove m k) = true.
  Proof. rewrite !fb. apply (kv_remove_Forall Q). Qed.
End EntriesB.
