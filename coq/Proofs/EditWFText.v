(* Proofs/EditWFText.v — property C08, text half: every edit operation preserves Spec/WF.v under a
   decidable side condition on (operation, tree); histories.  (The print/parse round trip of edited
   documents, closed against the WF backbone, is Proofs/EditTextClose.v.)

   WF root = t_dotted root = false /\ tbl_wf true root /\ tbl_lim 0 0 root /\ order_ok root.
     * `t_dotted root = false` and `tbl_wf true root`: proved per operation from the node lemmas of
       Proofs/EditWFTextOps.v, lifted along the path (Proofs/EditWFTextBase.v).  Side condition `wf_side`.
     * `tbl_lim 0 0 root` (implementation limits: nesting / key-path length below LIMIT): the side condition
       is the boolean limit check of the RESULT (`lim_side`), sound by `tbl_lim_b_sound` (Proofs/WFBoolSound.v) — no
       operation-specific argument is made for the limits.
     * `order_ok root`: likewise the boolean check of the result (`order_side`), sound by `order_b_sound` below.
       Operations that cannot change the section positions at all are listed in `order_free`. *)
From TV Require Import Base.Prelude Base.Utf8.
From TV Require Import Model.Tree Model.Encode Spec.WF.
From TV Require Import Proofs.WFBool Proofs.WFBoolSound.
From TV Require Import Spec.EditSpec Model.Edit Proofs.EditRefine.
From TV Require Import Proofs.EditWFTextBase Proofs.EditWFTextOps.
Require Import Lia.
From TV Require Import Base.ListFacts.

(** * The side condition for tbl_wf, per operation *)

Definition wf_side (o : op) (t : tbl) : bool :=
  match o with
  | OInsert p k v => utf8_valid_b k && pv_ok v
  | OInsertTable p k =>
    utf8_valid_b k && node_sat p (tbl_after (op_insert_item k (ITable tbl_new))) (ITable t)
  | OInsertAot p k =>
    utf8_valid_b k && node_sat p (tbl_after (op_insert_item k (IAot [tbl_new] None))) (ITable t)
  | ORemove p k => node_sat p (remove_after k) (ITable t)
  | OArrPush p v | OArrInsert p _ v | OArrReplace p _ v => pv_ok v
  | OArrRemove _ _ | OAotPush _ | OSort _ | OFmt _ | OSortBy _ _ => true
  | OAotRemove p i => node_sat p (aot_remove_after i) (ITable t)
  | OMakeValue p k => node_sat p (slot_after k make_value mv_good) (ITable t)
  | OIntoTable p k => node_sat p (slot_after k into_table_slot (fun _ => true)) (ITable t)
  | OIntoAot p k => node_sat p (slot_after k into_aot_slot (fun _ => true)) (ITable t)
  | OISet ks x => forallb utf8_valid_b ks && ipay_ok x && iset_side ks x (ITable t)
  end.

Lemma root_step f t t' :
  node_ok f -> f (ITable t) = Some (ITable t') -> tbl_wf true t -> tbl_wf true t' /\ Rt t t'.
Proof. intros Hf H Hw. exact (Hf KRoot (ITable t) (ITable t') H Hw). Qed.

Theorem step_tbl_wf : forall t o t',
  tbl_wf true t -> apply o t = Some t' -> wf_side o t = true -> tbl_wf true t' /\ Rt t t'.
Proof.
  intros t o t' Hw H Hs. unfold apply in H.
  destruct (op_fun o) as [P f] eqn:EO. apply as_tbl_abs in H.
  assert (Plain : forall f0, f0 = f -> node_ok f0 -> tbl_wf true t' /\ Rt t t').
  { intros f0 -> Hn. exact (at_path_wf P f Hn KRoot (ITable t) (ITable t') H Hw). }
  assert (Guarded : forall g f0, f0 = f -> node_ok (guard g f0) -> node_sat P g (ITable t) = true ->
                                 tbl_wf true t' /\ Rt t t').
  { intros g f0 -> Hn Hg.
    exact (at_path_wf P (guard g f) Hn KRoot (ITable t) (ITable t') (at_path_guard P f g _ _ H Hg) Hw). }
  destruct o as [q k v|q k|q k|q k|q v|q i v|q i v|q i|q|q i|q|q|q k|q k|q k|ks x|q cm];
    simpl in EO; injection EO as <- <-; simpl in Hs.
  - apply andb_true_iff in Hs as [Hk Hv]. exact (Plain _ eq_refl (op_insert_node k v Hk Hv)).
  - apply andb_true_iff in Hs as [Hk Hg].
    exact (Guarded _ _ eq_refl (op_insert_item_node k _ Hk tbl_new_entry) Hg).
  - apply andb_true_iff in Hs as [Hk Hg].
    exact (Guarded _ _ eq_refl (op_insert_item_node k _ Hk aot_new_entry) Hg).
  - exact (Guarded _ _ eq_refl (op_remove_node k) Hs).
  - exact (Plain _ eq_refl (op_arr_push_node v Hs)).
  - exact (Plain _ eq_refl (op_arr_insert_node i v Hs)).
  - exact (Plain _ eq_refl (op_arr_replace_node i v Hs)).
  - exact (Plain _ eq_refl (op_arr_remove_node i)).
  - exact (Plain _ eq_refl op_aot_push_node).
  - exact (Guarded _ _ eq_refl (op_aot_remove_node i) Hs).
  - exact (Plain _ eq_refl op_sort_node).
  - exact (Plain _ eq_refl op_fmt_node).
  - exact (Guarded _ _ eq_refl (op_slot_node k make_value mv_good make_value_slot_wf) Hs).
  - exact (Guarded _ _ eq_refl (op_slot_node k into_table_slot (fun _ => true) (fun e He _ => into_table_slot_wf e He)) Hs).
  - exact (Guarded _ _ eq_refl (op_slot_node k into_aot_slot (fun _ => true) (fun e He _ => into_aot_slot_wf e He)) Hs).
  - apply andb_true_iff in Hs as [Hs Hside]. apply andb_true_iff in Hs as [Hu Hp].
    simpl in H. destruct ks as [|k ks]; [discriminate|].
    exact (iset_wf x Hp (k :: ks) KRoot (ITable t) (ITable t') Hu H ltac:(discriminate) Hw Hside).
  - exact (Plain _ eq_refl (op_sort_by_node cm)).
Qed.

(** * Limits and order: decided on the result *)

Lemma order_b_sound t : order_b t = true -> order_ok t.
Proof. apply nondecreasing_b_sound. Qed.

Definition lim_side (o : op) (t : tbl) : bool :=
  match apply o t with Some t' => tbl_lim_b 0 0 t' | None => true end.
Definition order_side (o : op) (t : tbl) : bool :=
  match apply o t with Some t' => order_b t' | None => true end.

(* the complete side condition of one step *)
Definition step_side (o : op) (t : tbl) : bool := wf_side o t && lim_side o t && order_side o t.

Theorem step_WF : forall t o t', WF t -> apply o t = Some t' -> step_side o t = true -> WF t'.
Proof.
  intros t o t' (Hd & Hw & _ & _) H Hs. unfold step_side in Hs.
  apply andb_true_iff in Hs as [Hs Ho]. apply andb_true_iff in Hs as [Hs Hl].
  unfold lim_side in Hl. unfold order_side in Ho. rewrite H in Hl, Ho.
  destruct (step_tbl_wf t o t' Hw H Hs) as [Hw' (Hdd & _)].
  split; [rewrite <- Hdd; exact Hd|]. split; [exact Hw'|]. split; [apply tbl_lim_b_sound; exact Hl|apply order_b_sound; exact Ho].
Qed.

(** * Histories *)

Fixpoint history_side (ops : list op) (t : tbl) : bool :=
  match ops with
  | [] => true
  | o :: tl => match apply o t with
               | Some t' => step_side o t && history_side tl t'
               | None => false
               end
  end.

Theorem history_WF : forall ops t t',
  WF t -> apply_seq ops t = Some t' -> history_side ops t = true -> WF t'.
Proof.
  induction ops as [|o ops IH]; intros t t' Hw H Hs; simpl in *.
  - injection H as <-. exact Hw.
  - destruct (apply o t) as [t1|] eqn:E; [|discriminate].
    apply andb_true_iff in Hs as [H1 H2].
    exact (IH t1 t' (step_WF t o t1 Hw E H1) H H2).
Qed.

(* The text half of C08 is closed in Proofs/EditTextClose.v against the backbone's `WF_print_parse`
   (Proofs/WFPrintTop.v): the printed text of the edited tree parses back to the DATA of the edited tree,
   every standard table listed key/value lines first (`text_data`).  It is not stated as
   `abs (doc_root d) = abs t`: that equation is false for well-formed trees that store a value behind
   a sub-table (Props/C08.v ex_roundtrip_exact_refuted). *)

(** * Which operations cannot touch the order of the sections *)

(* the positions of the sections in visiting order *)
Fixpoint tpos (t : tbl) : list (option N) :=
  match t with
  | Tbl items _ _ dotted pos _ =>
    (if dotted then [] else [pos])
    ++ flat_map (fun kv => match snd kv with
                           | ITable sub => tpos sub
                           | IAot ts _ => flat_map tpos ts
                           | _ => []
                           end) items
  end.
Definition ipos (i : item) : list (option N) :=
  match i with ITable t => tpos t | IAot ts _ => flat_map tpos ts | _ => [] end.
Lemma tpos_eq items d im dt pos sp :
  tpos (Tbl items d im dt pos sp) = (if dt then [] else [pos]) ++ flat_map (fun kv => ipos (snd kv)) items.
Proof. reflexivity. Qed.

Definition spos (s : tbl * list key * bool) : option N := t_position (fst (fst s)).

Lemma sections_tpos : forall t path arr, map spos (sections t path arr) = tpos t.
Proof.
  pose (Pt := fun t => forall path arr, map spos (sections t path arr) = tpos t).
  pose (Pi := fun i => match i with ITable t => Pt t | IAot ts _ => Forall Pt ts | _ => True end).
  pose (Pv := fun _ : value => True).
  apply (tbl_ind4 Pv Pi Pt); unfold Pv, Pi; try (intros; exact I); try (intros; assumption).
  intros items d im dt pos sp IH path arr. rewrite Forall_forall in IH.
  simpl sections. rewrite map_app, tpos_eq. f_equal; [destruct dt; reflexivity|].
  rewrite map_flat_map.
  induction items as [|[k i] items IHi]; [reflexivity|]. simpl. f_equal.
  - specialize (IH (k, i) (or_introl eq_refl)). simpl in IH.
    destruct i as [|v|sub|ts sp0]; try reflexivity.
    + apply IH.
    + rewrite map_flat_map. rewrite Forall_forall in IH. clear -IH.
      induction ts as [|e ts IHt]; [reflexivity|]. simpl. f_equal; [apply IH; left; reflexivity|].
      apply IHt. intros. apply IH. right. assumption.
  - apply IHi. intros. apply IH. right. assumption.
Qed.

Fixpoint assign_N (last : N) (l : list (option N)) : list N :=
  match l with
  | [] => []
  | o :: tl => let pos := match o with Some q => q | None => last end in pos :: assign_N pos tl
  end.
Lemma assign_positions_N last l : map fst (assign_positions last l) = assign_N last (map spos l).
Proof.
  revert last. induction l as [|[[t p] a] l IH]; intro last; simpl; [reflexivity|].
  unfold spos at 1. simpl. f_equal. apply IH.
Qed.
Lemma order_ok_tpos t : order_ok t <-> nondecreasing (assign_N 0 (tpos t)).
Proof. unfold order_ok. rewrite assign_positions_N, sections_tpos. reflexivity. Qed.

(* an operation that leaves the positions of its node alone leaves those of the document alone *)
Lemma flat_map_kv_upd k F m m' :
  kv_upd k F m = Some m' -> (forall i i', F i = Some i' -> ipos i' = ipos i) ->
  flat_map (fun kv => ipos (snd kv)) m' = flat_map (fun kv => ipos (snd kv)) m.
Proof.
  revert m'. induction m as [|[k1 i1] m IH]; intros m' H Hf; simpl in H; [discriminate|].
  destruct (bytes_eqb (k_key k1) k).
  - destruct (F i1) as [i1'|] eqn:Fi; simpl in H; [|discriminate]. injection H as <-. simpl.
    rewrite (Hf _ _ Fi). reflexivity.
  - destruct (kv_upd k F m) as [m1|]; simpl in H; [|discriminate]. injection H as <-. simpl.
    rewrite (IH m1 eq_refl Hf). reflexivity.
Qed.
Lemma flat_map_nth_upd n F (l l' : list tbl) :
  nth_upd n F l = Some l' -> (forall x x', F x = Some x' -> tpos x' = tpos x) ->
  flat_map tpos l' = flat_map tpos l.
Proof.
  revert n l'. induction l as [|y l IH]; intros [|n] l' H Hf; simpl in H; try discriminate.
  - destruct (F y) as [y'|] eqn:Fy; simpl in H; [|discriminate]. injection H as <-. simpl. rewrite (Hf _ _ Fy). reflexivity.
  - destruct (nth_upd n F l) as [l1|] eqn:E; simpl in H; [|discriminate]. injection H as <-. simpl.
    rewrite (IH n l1 E Hf). reflexivity.
Qed.

Lemma at_path_ipos P f :
  (forall i i', f i = Some i' -> ipos i' = ipos i) ->
  forall it it', at_path P f it = Some it' -> ipos it' = ipos it.
Proof.
  intro Hf. induction P as [|s P IH]; intros it it' H; [exact (Hf _ _ H)|].
  destruct s as [k|n]; simpl in H.
  - destruct it as [|[sc r d|vals tr cm d sp|items pre im dt d sp]|[items d im dt pos sp]|ts sp]; try discriminate.
    + destruct (kv_upd k _ items) as [items'|]; simpl in H; [|discriminate]. injection H as <-. reflexivity.
    + destruct (kv_upd k _ items) as [items'|] eqn:E; simpl in H; [|discriminate]. injection H as <-.
      cbn [ipos]. rewrite !tpos_eq. f_equal. apply (flat_map_kv_upd _ _ _ _ E).
      intros i i' Fi. cbv beta in Fi. destruct (item_is_none i); [discriminate|]. exact (IH _ _ Fi).
  - destruct it as [|[sc r d|vals tr cm d sp|items pre im dt d sp]|[items d im dt pos sp]|ts sp]; try discriminate.
    + destruct (nth_upd n _ vals) as [vals'|]; simpl in H; [|discriminate]. injection H as <-. reflexivity.
    + destruct (nth_upd n _ ts) as [ts'|] eqn:E; simpl in H; [|discriminate]. injection H as <-.
      simpl. apply (flat_map_nth_upd _ _ _ _ E).
      intros x x' Fx. cbv beta in Fx. destruct (at_path P f (ITable x)) as [[| |t'|]|] eqn:A; simpl in Fx; try discriminate.
      injection Fx as <-. exact (IH _ _ A).
Qed.

(* the array operations and fmt work on values / formatting only *)
Definition order_free (o : op) : bool :=
  match o with
  | OArrPush _ _ | OArrInsert _ _ _ | OArrReplace _ _ _ | OArrRemove _ _ | OFmt _ => true
  | _ => false
  end.

Lemma decorate_ipos m :
  flat_map (fun kv => ipos (snd kv)) (decorate_items m) = flat_map (fun kv => ipos (snd kv)) m.
Proof.
  unfold decorate_items. induction m as [|[k i] m IH]; simpl; [reflexivity|]. rewrite IH. destruct i; reflexivity.
Qed.

Theorem order_free_ok : forall o t t',
  order_free o = true -> apply o t = Some t' -> order_ok t -> order_ok t'.
Proof.
  intros o t t' Hf H Ho. unfold apply in H. destruct (op_fun o) as [P f] eqn:EO. apply as_tbl_abs in H.
  assert (K : (forall i i', f i = Some i' -> ipos i' = ipos i) -> order_ok t').
  { intro Hn. pose proof (at_path_ipos P f Hn _ _ H) as E. simpl in E.
    apply order_ok_tpos. rewrite E. apply order_ok_tpos. exact Ho. }
  destruct o; try discriminate Hf; simpl in EO; injection EO as <- <-; apply K; intros i0 i' Hi.
  - destruct i0 as [|[|vals tr c d sp|]| |]; simpl in Hi; try discriminate. injection Hi as <-. reflexivity.
  - destruct i0 as [|[|vals tr c d sp|]| |]; simpl in Hi; try discriminate.
    destruct (vec_insert _ _ vals); simpl in Hi; [|discriminate]. injection Hi as <-. reflexivity.
  - destruct i0 as [|[|vals tr c d sp|]| |]; simpl in Hi; try discriminate.
    destruct (nth_upd _ _ vals); simpl in Hi; [|discriminate]. injection Hi as <-. reflexivity.
  - destruct i0 as [|[|vals tr c d sp|]| |]; simpl in Hi; try discriminate.
    destruct (vec_remove _ vals) as [[[| | |] ?]|]; try discriminate. injection Hi as <-. reflexivity.
  - destruct i0 as [|[|vals tr c d sp|items pre im dt d sp]|[items d im dt pos sp]|]; simpl in Hi; try discriminate;
      injection Hi as <-; try reflexivity.
    cbn [ipos tbl_with_items]. rewrite !tpos_eq, decorate_ipos. reflexivity.
Qed.

(* sorting moves whole entries: the positions of the sections are permuted with them, so `order_side` (the check
   of the result) is the side condition of sort_values / sort_values_by on a TABLE.  On an INLINE table there
   are no sections: the order cannot break, whatever the comparator *)
Definition is_value_node (i : item) : bool := match i with IValue _ => true | _ => false end.
Definition sort_path (o : op) : option path :=
  match o with OSort p | OSortBy p _ => Some p | _ => None end.

Theorem sort_inline_order_ok : forall o p t t',
  sort_path o = Some p -> node_sat p is_value_node (ITable t) = true ->
  apply o t = Some t' -> order_ok t -> order_ok t'.
Proof.
  intros o p t t' Hp Hg H Ho. unfold apply in H. destruct (op_fun o) as [P f] eqn:EO. apply as_tbl_abs in H.
  assert (K : P = p -> (forall i i', guard is_value_node f i = Some i' -> ipos i' = ipos i) -> order_ok t').
  { intros -> Hn. pose proof (at_path_ipos p (guard is_value_node f) Hn _ _ (at_path_guard p f is_value_node _ _ H Hg)) as E.
    simpl in E. apply order_ok_tpos. rewrite E. apply order_ok_tpos. exact Ho. }
  destruct o; try discriminate Hp; simpl in EO, Hp; injection EO as <- <-; injection Hp as <-; apply K; try reflexivity;
    intros i0 i' Hi; unfold guard in Hi; destruct i0 as [|v| |]; try discriminate Hi; cbn [is_value_node] in Hi.
  - destruct v; simpl in Hi; try discriminate. injection Hi as <-. reflexivity.
  - destruct v as [| |items pre im dt d sp]; unfold op_sort_by in Hi; try discriminate.
    destruct (inline_is_map (VInline items pre im dt d sp)); [|discriminate]. injection Hi as <-. reflexivity.
Qed.
