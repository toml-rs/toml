(* Proofs/GrammarBase.v — C01/C02 layer L2, shared definitions: the abstraction from the
   toml_edit tree to the data of Spec/Syntax.v (`absv`, `abs_doc`), mapping the values of a
   Spec/Defs.v tree, and small list / input facts used by the Grammar*.v files. *)
From TV Require Import Base.Prelude Spec.Defs Spec.Syntax.
From TV Require Import Model.Tree Model.Parse Model.Document.
From TV Require Import Proofs.DefsEquivBase.
Require Import Lia ZifyBool ZifyN ZifyNat.

(* ---- model tree -> data ------------------------------------------------------------------------ *)
Definition abs_scalar (s : scalar) : dval :=
  match s with
  | SString x => DStr x
  | SInt z => DInt z
  | SFloat f => DFloat f
  | SBool b => DBool b
  | SDatetime d => DDate d
  end.

(* forget decor, reprs, spans, key spellings, trailing commas, the implicit / dotted flags of
   inline tables; a non-value item inside a value (never stored by the parser: NoPanicValue
   `vgood`) goes to an arbitrary datum *)
Fixpoint absv (v : value) : dval :=
  match v with
  | VScalar s _ _ => abs_scalar s
  | VArray vals _ _ _ _ =>
    DArr ((fix go (l : list item) : list dval :=
             match l with [] => [] | it :: tl => absi it :: go tl end) vals)
  | VInline items _ _ _ _ _ =>
    DTab ((fix go (l : list (key * item)) : list (bytes * dval) :=
             match l with [] => [] | (k, it) :: tl => (k_key k, absi it) :: go tl end) items)
  end
with absi (it : item) : dval :=
  match it with
  | IValue v => absv v
  | _ => DTab []
  end.

Definition absi_kv (kv : key * item) : bytes * dval := (k_key (fst kv), absi (snd kv)).

Lemma absv_array vals tr c d sp : absv (VArray vals tr c d sp) = DArr (map absi vals).
Proof.
  cbn [absv]. f_equal; try (induction vals as [|it tl IH]; [reflexivity | cbn [map]; rewrite <- IH; reflexivity]).
Qed.

Lemma absv_inline items pre im dt d sp : absv (VInline items pre im dt d sp) = DTab (map absi_kv items).
Proof.
  cbn [absv]. f_equal; try (induction items as [|[k it] tl IH];
    [reflexivity | cbn [map absi_kv fst snd]; rewrite <- IH; reflexivity]).
Qed.

Lemma absv_decorate v p s : absv (value_decorate v p s) = absv v.
Proof. destruct v; reflexivity. Qed.

Lemma absv_apply_raw v sp : absv (apply_raw v sp) = absv v.
Proof. destruct v; reflexivity. Qed.

(* ---- mapping the values of a Spec/Defs.v tree ------------------------------------------------- *)
Section NMap.
  Context {V W : Type}.
  Variable f : V -> W.
  Fixpoint nmap (n : node V) : node W :=
    match n with
    | NVal v => NVal (f v)
    | NTab kd items =>
      NTab kd ((fix go (l : list (bytes * node V)) : list (bytes * node W) :=
                  match l with [] => [] | (k, n') :: tl => (k, nmap n') :: go tl end) items)
    | NAot es =>
      NAot ((fix goe (l : list (list (bytes * node V))) : list (list (bytes * node W)) :=
               match l with
               | [] => []
               | e :: tl =>
                 ((fix go (l : list (bytes * node V)) : list (bytes * node W) :=
                     match l with [] => [] | (k, n') :: tl => (k, nmap n') :: go tl end) e) :: goe tl
               end) es)
    end.
  Definition kmap (kn : bytes * node V) : bytes * node W := (fst kn, nmap (snd kn)).
  Definition smap (t : stree V) : stree W := map kmap t.

  Lemma nmap_tab kd items : nmap (NTab kd items) = NTab kd (smap items).
  Proof.
    cbn [nmap]. f_equal; try (unfold smap; induction items as [|[k n] tl IH];
      [reflexivity | cbn [map kmap fst snd]; rewrite <- IH; reflexivity]).
  Qed.
  Lemma nmap_aot es : nmap (NAot es) = NAot (map smap es).
  Proof.
    cbn [nmap]. f_equal; try (induction es as [|e tl IH]; [reflexivity|]; cbn [map]; rewrite <- IH; f_equal;
    try (unfold smap; induction e as [|[k n] tl' IH']; [reflexivity | cbn [map kmap fst snd]; rewrite <- IH'; reflexivity])).
  Qed.
End NMap.

Definition stmt_map {V W} (f : V -> W) (s : stmt V) : stmt W :=
  match s with SHeader p => SHeader p | SArrHeader p => SArrHeader p | SKeyVal p v => SKeyVal p (f v) end.

Definition verdict_map {V W} (f : V -> W) (v : Defs.verdict V) : Defs.verdict W :=
  match v with Valid t => Valid (smap f t) | Invalid => Invalid | Undecided => Undecided end.

(* the data of a parsed document: the table kinds of Spec/Defs.v (header / super / dotted) are
   kept, everything else of the toml_edit tree that is not data is forgotten *)
Definition abs_doc (d : doc) : stree dval := smap absv (abs_tbl (doc_root d)).
