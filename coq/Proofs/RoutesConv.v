(* Proofs/RoutesConv.v — C13: facts about to_toml_value / to_toml_table (what toml::from_str::<toml::Value>
   and str::parse::<toml::Table> build from a parsed tree), and the twin SERIALIZERS: on a value whose
   serialized tree has no private key (date-times included), Value::try_from builds exactly the
   toml::Value the serialized text parses to. *)
From TV Require Import Base.Prelude Model.SerNum Spec.SerdeData Model.Ser Model.De Model.SerdeRoutes Proofs.DatetimeEq
  Proofs.NumbersRT_Ser Proofs.SerdeRTBase Proofs.SerdeRTEq Proofs.SerdeRTLeaf Proofs.SerdeRTLists Proofs.SerdeRT Proofs.SerdeRTTv.

Definition conv_entries (es : list (bytes * tomlval)) : result (list (bytes * tomlval)) :=
  mapM (fun kx => rmap (fun y' => (fst kx, y')) (to_toml_value (snd kx))) es.

Lemma ttv_arr xs : to_toml_value (VArr xs) = rmap VArr (mapM to_toml_value xs).
Proof. reflexivity. Qed.

Definition first_key_plain (es : list (bytes * tomlval)) : bool :=
  match es with (k, _) :: _ => negb (bytes_eqb k DT_FIELD) | [] => true end.

Lemma ttv_tab_plain es : first_key_plain es = true ->
  to_toml_value (VTab es) =
  rbind (conv_entries es) (fun es' => if nodup_bytes (map fst es') then Ok (VTab (btree_of_pairs es')) else Err EDe).
Proof.
  destruct es as [|[k y] es]; intro H; [reflexivity|]. simpl in H. apply negb_true_iff in H.
  simpl. rewrite H. reflexivity.
Qed.

Lemma ttv_tab_tunnel k y rest : bytes_eqb k DT_FIELD = true ->
  to_toml_value (VTab ((k, y) :: rest)) = match y with VStr s => rmap VDatetime (de_dt_str s) | _ => Err EDe end.
Proof. intro H. simpl. rewrite H. reflexivity. Qed.

Lemma ttt_tab es : to_toml_table (VTab es) = rmap (fun es' => VTab (btree_of_pairs es')) (conv_entries es).
Proof. reflexivity. Qed.

Definition conv_rel (kx ky : bytes * tomlval) : Prop := fst ky = fst kx /\ to_toml_value (snd kx) = Ok (snd ky).

Lemma conv_entries_inv es es' : conv_entries es = Ok es' -> Forall2 conv_rel es es' /\ map fst es' = map fst es.
Proof.
  unfold conv_entries. intro H. apply mapM_ok in H.
  induction H as [|[k x] [k' y] es es' Hxy _ [IH1 IH2]]; [split; [constructor|reflexivity]|].
  simpl in Hxy. apply rmap_ok in Hxy as (y0 & Hy & E). injection E as -> ->.
  split; [constructor; [split; [reflexivity|exact Hy]|exact IH1]|simpl; f_equal; exact IH2].
Qed.

Lemma conv_entries_of es es' : Forall2 conv_rel es es' -> conv_entries es = Ok es'.
Proof.
  unfold conv_entries. intro H. apply mapM_of_Forall2.
  induction H as [|[k x] [k' y] es es' [H1 H2] _ IH]; constructor; [|exact IH].
  simpl in *. subst k'. rewrite H2. reflexivity.
Qed.

(* the table route and the value route read a plain root alike *)
Lemma plain_root_same x : plain_root x = true -> to_toml_table x = to_toml_value x.
Proof.
  destruct x; try (simpl; discriminate). intro H. unfold plain_root in H. apply andb_true_iff in H as [Hnd Hf].
  change (first_key_plain es = true) in Hf.
  rewrite ttt_tab, ttv_tab_plain by exact Hf.
  destruct (conv_entries es) as [es'|e] eqn:E; simpl; [|reflexivity].
  destruct (conv_entries_inv es es' E) as [_ Hk]. rewrite Hk, Hnd. reflexivity.
Qed.

(* ---- tunnel-free trees ---- *)
Lemma tunnel_free_tab es : tunnel_free (VTab es) = true ->
  first_key_plain es = true /\ Forall (fun kx => bytes_eqb (fst kx) DT_FIELD = false /\ tunnel_free (snd kx) = true) es.
Proof.
  simpl. intro H. rewrite forallb_forall in H. split.
  - destruct es as [|[k y] es]; [reflexivity|]. simpl. specialize (H (k, y) (or_introl eq_refl)). simpl in H.
    apply andb_true_iff in H as [H _]. exact H.
  - apply Forall_forall. intros kx Hin. specialize (H kx Hin). apply andb_true_iff in H as [H1 H2].
    apply negb_true_iff in H1. auto.
Qed.

(* ---- the twin serializers ---- *)
Definition TF (t : ty) : Prop :=
  forall v x, has_type_b t v = true -> ser_value t v = Ok x -> tunnel_free x = true ->
              exists y, to_toml_value x = Ok y /\ tv_ser t v = Ok y.
Definition TFV (var : variant) : Prop :=
  forall p x, has_type_variant_b var p = true -> ser_payload var p = Ok x -> tunnel_free x = true ->
              exists y, to_toml_value x = Ok y /\ tv_payload var p = Ok y.

Lemma tf_list t : TF t -> forall vs xs,
  forallb (has_type_b t) vs = true -> mapM (ser_value t) vs = Ok xs -> forallb tunnel_free xs = true ->
  exists ys, mapM to_toml_value xs = Ok ys /\ mapM (tv_ser t) vs = Ok ys.
Proof.
  intros IH. induction vs as [|v vs IHvs]; intros xs Hty H Hf; simpl in *.
  - injection H as <-. exists []. split; reflexivity.
  - apply andb_true_iff in Hty as [Hv Hvs].
    apply rbind_ok in H as (x & Hx & H). apply rbind_ok in H as (xs' & Hxs & H). injection H as <-.
    simpl in Hf. apply andb_true_iff in Hf as [Hf1 Hf2].
    destruct (IH v x Hv Hx Hf1) as (y & C & T). destruct (IHvs xs' Hvs Hxs Hf2) as (ys & Cs & Ts).
    exists (y :: ys). simpl. rewrite C, Cs, T, Ts. split; reflexivity.
Qed.

Lemma tf_tuple ts : Forall TF ts -> forall vs xs,
  all2b has_type_b ts vs = true -> zipM ser_value ts vs = Ok xs -> forallb tunnel_free xs = true ->
  exists ys, mapM to_toml_value xs = Ok ys /\ zipM tv_ser ts vs = Ok ys.
Proof.
  induction 1 as [|t ts IHt _ IH]; intros [|v vs] xs Hty H Hf; simpl in *; try discriminate.
  - injection H as <-. exists []. split; reflexivity.
  - apply andb_true_iff in Hty as [Hv Hvs].
    apply rbind_ok in H as (x & Hx & H). apply rbind_ok in H as (xs' & Hxs & H). injection H as <-.
    simpl in Hf. apply andb_true_iff in Hf as [Hf1 Hf2].
    destruct (IHt v x Hv Hx Hf1) as (y & C & T). destruct (IH vs xs' Hvs Hxs Hf2) as (ys & Cs & Ts).
    exists (y :: ys). simpl. rewrite C, Cs, T, Ts. split; reflexivity.
Qed.

Lemma tf_tuple_arr ts : Forall TF ts -> forall vs x, all2b has_type_b ts vs = true ->
  rmap VArr (zipM ser_value ts vs) = Ok x -> tunnel_free x = true ->
  exists y, to_toml_value x = Ok y /\ rmap VArr (zipM tv_ser ts vs) = Ok y.
Proof.
  intros H vs x Hty Hser Hf. apply rmap_ok in Hser as (xs & Hxs & ->). simpl in Hf.
  destruct (tf_tuple ts H vs xs Hty Hxs Hf) as (ys & C & T). exists (VArr ys). rewrite ttv_arr, C, T. split; reflexivity.
Qed.

Lemma smv_not_opt ser t v : is_opt t = false -> ser_map_value ser t v = rmap Some (ser t v).
Proof. destruct t; try reflexivity. discriminate. Qed.

(* struct fields: entry by entry the same keys, converted values (both sides leave out exactly the direct Nones) *)
Lemma tf_fields fs : Forall (fun ft => TF (snd ft)) fs -> forall vs ps,
  all2b (fun ft v' => has_type_b (snd ft) v') fs vs = true -> ser_fields fs vs = Ok ps ->
  Forall (fun kx : bytes * tomlval => tunnel_free (snd kx) = true) (somes ps) ->
  exists qs, tv_fields fs vs = Ok qs /\ Forall2 conv_rel (somes ps) (somes qs).
Proof.
  unfold ser_fields, tv_fields.
  induction 1 as [|[f t] fs IHt _ IH]; intros [|v vs] ps Hty H Hf; simpl in *; try discriminate.
  - injection H as <-. exists []. split; [reflexivity|constructor].
  - apply andb_true_iff in Hty as [Hv Hvs].
    apply rbind_ok in H as (p & Hp & H). apply rbind_ok in H as (ps' & Hps & H). injection H as <-.
    apply rmap_ok in Hp as (ox & Hox & ->).
    destruct (ser_map_value_cases ser_value t v) as [(t' & -> & -> & E)|[Hn E]]; rewrite E in Hox.
    + injection Hox as <-. simpl in Hf. destruct (IH vs ps' Hvs Hps Hf) as (qs & Tq & Fq).
      exists (None :: qs). simpl. rewrite Tq. simpl. split; [reflexivity|exact Fq].
    + apply rmap_ok in Hox as (x & Hx & ->). simpl in Hf. inversion Hf as [|? ? Hfx Hf']; subst. simpl in Hfx.
      destruct (IHt v x Hv Hx Hfx) as (y & C & T). destruct (IH vs ps' Hvs Hps Hf') as (qs & Tq & Fq).
      assert (E2 : ser_map_value tv_ser t v = rmap Some (tv_ser t v)).
      { destruct (ser_map_value_cases tv_ser t v) as [(t'' & -> & -> & _)|[_ E2]]; [exfalso; apply (Hn eq_refl); reflexivity|exact E2]. }
      exists (Some (f, y) :: qs). simpl. rewrite E2, T. simpl. rewrite Tq. simpl. split; [reflexivity|].
      constructor; [split; [reflexivity|exact C]|exact Fq].
Qed.

(* a serialized table with distinct, non-private keys: both sides insert the same entries in the same order *)
Lemma tf_table es qs : NoDup (map fst es) -> tunnel_free (VTab es) = true -> Forall2 conv_rel es qs ->
  to_toml_value (VTab es) = Ok (VTab (btree_of_pairs qs)).
Proof.
  intros Hnd Hf F. destruct (tunnel_free_tab es Hf) as [Hfirst _].
  rewrite (ttv_tab_plain es Hfirst), (conv_entries_of es qs F). simpl.
  destruct (conv_entries_inv es qs (conv_entries_of es qs F)) as [_ Hk]. rewrite Hk.
  apply nodup_bytes_NoDup in Hnd. rewrite Hnd. reflexivity.
Qed.

Lemma tf_struct_fields fs : Forall (fun ft => TF (snd ft)) fs -> forall vs ps,
  nodup_bytes (map fst fs) = true ->
  all2b (fun ft v' => has_type_b (snd ft) v') fs vs = true -> ser_fields fs vs = Ok ps ->
  tunnel_free (table_of ps) = true ->
  exists qs, tv_fields fs vs = Ok qs /\ to_toml_value (table_of ps) = Ok (btable_of qs).
Proof.
  intros IH vs ps Hnd Hty H Hf. apply nodup_bytes_NoDup in Hnd.
  (* the keys written are distinct field names *)
  pose proof (rt_fields fs (Forall_impl _ (fun ft _ => roundtrip_value (snd ft)) IH) vs ps Hty H) as Frt.
  pose proof (fields_somes_nodup de_value fs vs ps Frt Hnd) as Hk.
  unfold table_of, somes_pairs in *. rewrite (tab_of_pairs_nodup _ Hk) in *.
  destruct (tunnel_free_tab _ Hf) as [_ Hall].
  destruct (tf_fields fs IH vs ps Hty H) as (qs & Tq & Fq).
  { eapply Forall_impl; [|exact Hall]. intros kx [_ Hx]. exact Hx. }
  exists qs. split; [exact Tq|]. unfold btable_of, somes_pairs. apply tf_table; assumption.
Qed.

Lemma tf_entries kt vt : TF vt -> is_opt vt = false -> forall es xs,
  forallb (fun kv => has_type_b kt (fst kv) && has_type_b vt (snd kv)) es = true ->
  ser_entries kt vt es = Ok (map Some xs) ->
  Forall (fun kx : bytes * tomlval => tunnel_free (snd kx) = true) xs ->
  exists qs, tv_entries kt vt es = Ok (map Some qs) /\ Forall2 conv_rel xs qs.
Proof.
  intros IHv Hno. unfold ser_entries, tv_entries.
  induction es as [|[k v] es IH]; intros xs Hty H Hf; simpl in *.
  - destruct xs; [|discriminate]. exists []. split; [reflexivity|constructor].
  - apply andb_true_iff in Hty as [Hkv Hes]. apply andb_true_iff in Hkv as [Hk Hv].
    apply rbind_ok in H as (p & Hp & H). apply rbind_ok in H as (ps' & Hps & H).
    destruct xs as [|[s x] xs]; [discriminate|]. simpl in H. injection H as -> ->.
    apply rbind_ok in Hp as (s0 & Hs & Hp). apply rmap_ok in Hp as (ox & Hox & E).
    destruct (ser_map_value_cases ser_value vt v) as [(t' & -> & _)|[_ E']]; [discriminate|]. rewrite E' in Hox.
    apply rmap_ok in Hox as (x0 & Hx & ->). simpl in E. injection E as Es Ex. subst s x.
    inversion Hf as [|? ? Hfx Hf']; subst. simpl in Hfx.
    destruct (tv_key_roundtrip kt k _ Hk Hs) as [K1 _].
    destruct (IHv v _ Hv Hx Hfx) as (y & C & T).
    destruct (IH xs Hes Hps Hf') as (qs & Tq & Fq).
    eexists ((_, y) :: qs). rewrite K1. simpl. rewrite (smv_not_opt tv_ser vt v Hno), T. simpl. rewrite Tq. simpl.
    split; [reflexivity|constructor; [split; [reflexivity|exact C]|exact Fq]].
Qed.

Theorem try_from_twin : forall t, TF t.
Proof.
  induction t using ty_ind2 with (Q := TFV); unfold TF, TFV in *;
    (* bool, char, str: the value itself on both sides; unit, unit struct, a unit variant's payload: refused *)
    try (intros v x Hty Hser Hf; destruct v; simpl in Hser; try discriminate Hser; injection Hser as <-; eexists; split; reflexivity).
  - intros v x Hty Hser Hf. destruct v; simpl in Hser; try discriminate Hser. simpl in Hty.
    unfold ser_int_value in Hser. destruct (ser_int w z) as [i|] eqn:E; [|discriminate Hser]. injection Hser as <-.
    destruct (ser_exact w z i Hty E) as [-> _]. exists (VInt z). split; [reflexivity|].
    simpl. unfold ser_int, tv_ser_int in *. destruct (ser_method_of w); try discriminate E; try reflexivity.
    unfold serialize_u64 in E. unfold tv_serialize_u64. destruct (fits_i64 z); [reflexivity|discriminate E].
  - intros v x Hty Hser Hf. destruct w; destruct v; simpl in Hser; try discriminate Hser; injection Hser as <-; eexists; split; reflexivity.
  - (* a date-time: the tunnel on both sides; the text Display printed parses back (C12) *)
    intros v x Hty Hser Hf. destruct v; simpl in Hser; try discriminate Hser. simpl in Hty.
    apply andb_true_iff in Hty as [Hr _]. rewrite (ser_datetime_ok d x Hr Hser).
    exists (VDatetime d). split.
    + simpl. unfold de_dt_str. rewrite (print_parse_std d Hr). reflexivity.
    + simpl. unfold ser_datetime, dt_field_str. rewrite (print_parse_std d Hr). reflexivity.
  - intros v x Hty Hser Hf. destruct v; try (simpl in Hser; discriminate Hser).
    rewrite sv_opt_some in Hser. rewrite ht_opt_some in Hty. rewrite ts_opt_some. apply IHt; assumption.
  - intros v x Hty Hser Hf. destruct v; try (simpl in Hser; discriminate Hser).
    rewrite sv_seq in Hser. rewrite ht_seq in Hty. apply rmap_ok in Hser as (xs & Hxs & ->). simpl in Hf.
    destruct (tf_list t IHt vs xs Hty Hxs Hf) as (ys & C & T).
    exists (VArr ys). rewrite ttv_arr, C, ts_seq, T. split; reflexivity.
  - intros v x Hty Hser Hf. destruct v; try (simpl in Hser; discriminate Hser). exact (tf_tuple_arr ts H vs x Hty Hser Hf).
  - (* TMap *)
    intros v x Hty Hser Hf. destruct v; try (simpl in Hser; discriminate Hser).
    rewrite ht_map in Hty. apply andb_true_iff in Hty as [Hty Hnd]. apply andb_true_iff in Hty as [Hno Hes].
    apply negb_true_iff in Hno. apply nodup_bytes_NoDup in Hnd.
    rewrite sv_map in Hser. apply rmap_ok in Hser as (ps & Hps & ->).
    destruct (rt_entries t1 t2 (roundtrip_value t2) Hno es ps Hes Hps) as (xs & -> & F).
    assert (Hk : somes (map (fun kv => key_text t1 (fst kv)) es) = map fst xs).
    { apply (entries_keys t1 es xs (fun kv kx => de_key t1 (fst kx) = Ok (fst kv) /\ sval_eq (fst kv) (fst kv) /\
                                      exists v', de_value t2 (snd kx) = Ok v' /\ sval_eq (snd kv) v')). exact F. }
    rewrite Hk in Hnd. unfold table_of, somes_pairs in *. rewrite somes_map_Some in *.
    rewrite (tab_of_pairs_nodup xs Hnd) in *.
    destruct (tunnel_free_tab _ Hf) as [_ Hall].
    destruct (tf_entries t1 t2 IHt2 Hno es xs Hes Hps) as (qs & Tq & Fq).
    { eapply Forall_impl; [|exact Hall]. intros kx [_ Hx]. exact Hx. }
    exists (VTab (btree_of_pairs qs)). split; [apply tf_table; assumption|].
    rewrite ts_map, Tq. unfold btable_of, somes_pairs. simpl. rewrite somes_map_Some. reflexivity.
  - (* TStruct *)
    intros v x Hty Hser Hf. destruct v; try (simpl in Hser; discriminate Hser).
    rewrite ht_struct in Hty. apply andb_true_iff in Hty as [Hty Hvs]. apply andb_true_iff in Hty as [Hpriv Hnd].
    apply negb_true_iff in Hpriv. rewrite sv_struct, (private_not_dt n Hpriv) in Hser.
    apply rmap_ok in Hser as (ps & Hps & ->).
    destruct (tf_struct_fields fs H vs ps Hnd Hvs Hps Hf) as (qs & Tq & C).
    exists (btable_of qs). split; [exact C|]. rewrite (ts_struct n fs vs Hpriv), Tq. reflexivity.
  - intros v x Hty Hser Hf. destruct v; try (simpl in Hser; discriminate Hser).
    rewrite sv_newtype in Hser. rewrite ht_newtype in Hty. rewrite ts_newtype. apply IHt; assumption.
  - intros v x Hty Hser Hf. destruct v; try (simpl in Hser; discriminate Hser). exact (tf_tuple_arr ts H vs x Hty Hser Hf).
  - (* TEnum *)
    intros v x Hty Hser Hf. destruct v as [| | | | | | | | | | | | | |i p]; try (simpl in Hser; discriminate Hser).
    rewrite ht_enum in Hty. apply andb_true_iff in Hty as [_ Hp]. rewrite sv_enum in Hser.
    destruct (pick_cases (ser_variant p) (Err EBadCase) vs i) as [([vn var] & Hn & E)|[_ E]]; rewrite E in Hser; [|discriminate].
    rewrite (pick_nth _ _ _ _ _ Hn) in Hp. simpl in Hp.
    assert (HQ : forall q y, has_type_variant_b var q = true -> ser_payload var q = Ok y -> tunnel_free y = true ->
                             exists z, to_toml_value y = Ok z /\ tv_payload var q = Ok z).
    { rewrite Forall_forall in H. apply (H (vn, var)). eapply nth_error_In; exact Hn. }
    rewrite ts_enum, (pick_nth _ _ _ _ _ Hn). unfold ser_variant in Hser. unfold tv_variant. simpl in *.
    destruct var as [|tv|tsv|fsv].
    1: { apply htv_unit in Hp. subst p. injection Hser as <-. eexists; split; reflexivity. }
    (* a payload: the one-entry table { variant = payload } on both sides *)
    all: apply rmap_ok in Hser as (y & Hy & ->).
    all: destruct (tunnel_free_tab _ Hf) as [Hfirst Hall]; inversion Hall as [|? ? [Hk Hfy] _]; subst; simpl in *.
    all: destruct (HQ p y Hp Hy Hfy) as (z & C & T); exists (VTab [(vn, z)]); rewrite T; split; [|reflexivity].
    all: rewrite Hk, C; reflexivity.
  - intros p x Hty Hser Hf. rewrite sp_newtype in Hser. rewrite htv_newtype in Hty. rewrite tp_newtype. apply IHt; assumption.
  - intros p x Hty Hser Hf. destruct p; try (simpl in Hty; discriminate Hty). exact (tf_tuple_arr ts H vs x Hty Hser Hf).
  - intros p x Hty Hser Hf. destruct p; try (simpl in Hty; discriminate Hty).
    rewrite htv_struct in Hty. apply andb_true_iff in Hty as [Hnd Hvs].
    rewrite sp_struct in Hser. apply rmap_ok in Hser as (ps & Hps & ->).
    destruct (tf_struct_fields fs H vs ps Hnd Hvs Hps Hf) as (qs & Tq & C).
    exists (btable_of qs). split; [exact C|]. rewrite tp_struct, Tq. reflexivity.
Qed.
