(* Proofs/NumbersRT_Widen.v — C11, f32 writer: the exact widening f64::from(f32) (Model/WriteFloat.v
   widen32, a function on bit patterns) keeps sign, NaN-ness and zero-ness, and is injective on
   non-NaN patterns — so the f32 that was written is determined by the f64 that is read back
   (narrowing an exactly representable value is exact). *)
From TV Require Import Base.Prelude Model.WriteFloat.
Require Import Lia ZifyBool ZifyN ZifyNat.
Ltac Zify.zify_post_hook ::= Z.div_mod_to_equations.

Local Open Scope N_scope.

Definition p23 : N := 8388608.
Definition p29 : N := 536870912.
Definition p31 : N := 2147483648.
Definition p52 : N := 4503599627370496.
Definition p63 : N := 9223372036854775808.

(* fields of an f64 pattern assembled from sign, exponent, mantissa *)
Lemma assemble_fields s e m :
  s < 2 -> e < 2048 -> m < p52 ->
  let B := s * p63 + e * p52 + m in
  B mod p52 = m /\ (B / p52) mod 2048 = e /\ (B / p63) mod 2 = s.
Proof. intros Hs He Hm. cbv zeta. unfold p52, p63 in *. repeat split; lia. Qed.

Definition ex64 (B : N) : N := (B / p52) mod 2048.
Definition mant64 (B : N) : N := B mod p52.
Definition ex32 (b : N) : N := (b / p23) mod 256.
Definition mant32 (b : N) : N := b mod p23.
Definition sign32 (b : N) : N := (b / p31) mod 2.

Lemma classify64_nan B : fc_nan (classify64 B) = (ex64 B =? 2047) && negb (mant64 B =? 0).
Proof. reflexivity. Qed.
Lemma classify64_zero B : fc_zero (classify64 B) = (ex64 B =? 0) && (mant64 B =? 0).
Proof. reflexivity. Qed.
Lemma classify64_neg B : fc_neg (classify64 B) = N.testbit B 63.
Proof. reflexivity. Qed.
Lemma classify32_nan b : fc_nan (classify32 b) = (ex32 b =? 255) && negb (mant32 b =? 0).
Proof. reflexivity. Qed.
Lemma classify32_zero b : fc_zero (classify32 b) = (ex32 b =? 0) && (mant32 b =? 0).
Proof. reflexivity. Qed.
Lemma classify32_neg b : fc_neg (classify32 b) = N.testbit b 31.
Proof. reflexivity. Qed.

Lemma testbit_div a n : N.testbit a n = ((a / 2 ^ n) mod 2 =? 1).
Proof. apply N.testbit_eqb. Qed.

(* the exponent and mantissa fields widen32 assembles *)
Definition wide_fields (b : N) : N * N :=
  if ex32 b =? 255 then (2047, mant32 b * p29)
  else if ex32 b =? 0 then
    if mant32 b =? 0 then (0, 0)
    else (N.log2 (mant32 b) + 874, (mant32 b - 2 ^ N.log2 (mant32 b)) * 2 ^ (52 - N.log2 (mant32 b)))
  else (ex32 b + 896, mant32 b * p29).

Lemma widen32_eq b :
  widen32 b = sign32 b * p63 + fst (wide_fields b) * p52 + snd (wide_fields b).
Proof.
  unfold widen32, wide_fields, ex32, mant32, sign32.
  change (2 ^ 23) with p23. change (2 ^ 8) with 256. change (2 ^ 31) with p31.
  change (2 ^ 29) with p29. change (2 ^ 52) with p52. change (2 ^ 63) with p63.
  destruct ((b / p23) mod 256 =? 255); [reflexivity|].
  destruct ((b / p23) mod 256 =? 0); [|reflexivity].
  destruct (b mod p23 =? 0); reflexivity.
Qed.

Lemma mant32_lt b : mant32 b < p23.
Proof. unfold mant32, p23. lia. Qed.
Lemma ex32_lt b : ex32 b < 256.
Proof. unfold ex32. lia. Qed.
Lemma sign32_lt b : sign32 b < 2.
Proof. unfold sign32. lia. Qed.

(* subnormal f32: the normalised mantissa fits 52 bits, the exponent is in 874..896 *)
Lemma subnormal_fields m : 0 < m -> m < p23 ->
  N.log2 m <= 22 /\ (m - 2 ^ N.log2 m) * 2 ^ (52 - N.log2 m) < p52.
Proof.
  intros H0 H1.
  destruct (N.log2_spec m H0) as [L1 L2].
  assert (Hk : N.log2 m < 23).
  { apply N.log2_lt_pow2; [exact H0 | exact H1]. }
  split; [lia|].
  set (k := N.log2 m) in *.
  assert (E : p52 = 2 ^ k * 2 ^ (52 - k)).
  { rewrite <- N.pow_add_r. replace (k + (52 - k)) with 52 by lia. reflexivity. }
  rewrite E. apply N.mul_lt_mono_pos_r.
  - apply N.neq_0_lt_0, N.pow_nonzero. discriminate.
  - rewrite N.pow_succ_r' in L2. lia.
Qed.

(* wide_fields by the four kinds of f32 pattern: infinity or NaN, zero, subnormal, normal *)
Lemma wide_fields_spec b : exists e m, wide_fields b = (e, m) /\ m < p52 /\
  (ex32 b = 255 /\ e = 2047 /\ m = mant32 b * p29 \/
   ex32 b = 0 /\ mant32 b = 0 /\ e = 0 /\ m = 0 \/
   ex32 b = 0 /\ mant32 b <> 0 /\ N.log2 (mant32 b) <= 22 /\ e = N.log2 (mant32 b) + 874 /\
     m = (mant32 b - 2 ^ N.log2 (mant32 b)) * 2 ^ (52 - N.log2 (mant32 b)) \/
   ex32 b <> 0 /\ ex32 b <> 255 /\ e = ex32 b + 896 /\ m = mant32 b * p29).
Proof.
  pose proof (mant32_lt b) as Hm. unfold wide_fields.
  destruct (ex32 b =? 255) eqn:E1; [do 2 eexists; split; [reflexivity|]; unfold p23, p29, p52 in *; lia|].
  destruct (ex32 b =? 0) eqn:E2; [|do 2 eexists; split; [reflexivity|]; unfold p23, p29, p52 in *; lia].
  destruct (mant32 b =? 0) eqn:E3; [do 2 eexists; split; [reflexivity|]; unfold p52; lia|].
  destruct (subnormal_fields (mant32 b) ltac:(lia) Hm) as [K1 K2].
  do 2 eexists. split; [reflexivity|]. split; [exact K2|]. right; right; left. repeat split; lia.
Qed.

Lemma wide_fields_bounds b :
  fst (wide_fields b) < 2048 /\ snd (wide_fields b) < p52.
Proof.
  pose proof (ex32_lt b) as He. destruct (wide_fields_spec b) as (e & m & -> & Hm & C). cbn [fst snd]. lia.
Qed.

Lemma widen32_fields b :
  mant64 (widen32 b) = snd (wide_fields b) /\ ex64 (widen32 b) = fst (wide_fields b) /\
  (widen32 b / p63) mod 2 = sign32 b.
Proof.
  rewrite widen32_eq. destruct (wide_fields_bounds b) as [B1 B2].
  apply (assemble_fields _ _ _ (sign32_lt b) B1 B2).
Qed.

Theorem widen32_nan b : fc_nan (classify64 (widen32 b)) = fc_nan (classify32 b).
Proof.
  rewrite classify64_nan, classify32_nan.
  destruct (widen32_fields b) as (-> & -> & _). pose proof (ex32_lt b) as He.
  destruct (wide_fields_spec b) as (e & m & -> & Hm & C). cbn [fst snd]. unfold p29 in C. lia.
Qed.

Theorem widen32_zero b : fc_zero (classify64 (widen32 b)) = fc_zero (classify32 b).
Proof.
  rewrite classify64_zero, classify32_zero.
  destruct (widen32_fields b) as (-> & -> & _).
  destruct (wide_fields_spec b) as (e & m & -> & Hm & C). cbn [fst snd]. unfold p29 in C. lia.
Qed.

Theorem widen32_neg b : fc_neg (classify64 (widen32 b)) = fc_neg (classify32 b).
Proof.
  rewrite classify64_neg, classify32_neg, !testbit_div.
  change (2 ^ 63) with p63. change (2 ^ 31) with p31.
  destruct (widen32_fields b) as (_ & _ & ->). reflexivity.
Qed.

(* ---- injectivity: the f64 read back determines the f32 that was written ------------------------------ *)
Definition p32 : N := 4294967296.

Lemma decompose32 b : b < p32 -> b = sign32 b * p31 + ex32 b * p23 + mant32 b.
Proof. unfold p32, sign32, ex32, mant32, p31, p23. lia. Qed.

Lemma wide_fields_inj a b :
  fc_nan (classify32 a) = false -> fc_nan (classify32 b) = false ->
  wide_fields a = wide_fields b -> ex32 a = ex32 b /\ mant32 a = mant32 b.
Proof.
  rewrite !classify32_nan. intros Na Nb.
  pose proof (ex32_lt a) as Hea. pose proof (ex32_lt b) as Heb.
  destruct (wide_fields_spec a) as (ea & ma & -> & _ & Ca). destruct (wide_fields_spec b) as (eb & mb & -> & _ & Cb).
  intro H. injection H as -> ->. unfold p29 in *.
  (* the four kinds have disjoint exponent ranges *)
  destruct Ca as [Ca|[Ca|[Ca|Ca]]], Cb as [Cb|[Cb|[Cb|Cb]]]; try lia.
  (* both subnormal: the same leading bit, then the same bits below it *)
  destruct Ca as (Ea & Ma & _ & Ee & Em), Cb as (Eb & Mb & _ & -> & ->).
  assert (Hk : N.log2 (mant32 a) = N.log2 (mant32 b)) by lia.
  rewrite Hk in Em.
  destruct (N.log2_spec (mant32 a) ltac:(lia)) as [La _].
  destruct (N.log2_spec (mant32 b) ltac:(lia)) as [Lb _].
  rewrite Hk in La.
  apply N.mul_cancel_r in Em; [lia|]. apply N.pow_nonzero. discriminate.
Qed.

Theorem widen32_inj a b :
  a < p32 -> b < p32 ->
  fc_nan (classify32 a) = false -> fc_nan (classify32 b) = false ->
  widen32 a = widen32 b -> a = b.
Proof.
  intros Ha Hb Na Nb E.
  destruct (widen32_fields a) as (Ma & Ea & Sa). destruct (widen32_fields b) as (Mb & Eb & Sb).
  rewrite E in Ma, Ea, Sa.
  assert (W : wide_fields a = wide_fields b).
  { destruct (wide_fields a), (wide_fields b). cbn [fst snd] in *. congruence. }
  destruct (wide_fields_inj a b Na Nb W) as [X1 X2].
  rewrite (decompose32 a Ha), (decompose32 b Hb). congruence.
Qed.

(* for a finite non-zero f32 the writer is the f64 writer on the widened value *)
Lemma write_f32_finite b text :
  fc_nan (classify32 b) = false -> fc_zero (classify32 b) = false ->
  write_f32 b text = write_f64 (widen32 b) text.
Proof.
  intros Hn Hz. unfold write_f32. rewrite Hn, Hz. destruct (fc_neg (classify32 b)); reflexivity.
Qed.

(* the NaN and zero arms are those of write_float *)
Lemma write_f32_special b text :
  fc_nan (classify32 b) = true \/ fc_zero (classify32 b) = true ->
  write_f32 b text = write_float (classify32 b) text.
Proof.
  intro H. unfold write_f32, write_float.
  destruct (fc_neg (classify32 b)), (fc_nan (classify32 b)), (fc_zero (classify32 b)); try reflexivity;
    destruct H; discriminate.
Qed.

(* ---- the f32 round trip follows from the f64 one ----------------------------------------------------- *)
From TV Require Import Base.Winnow Model.Numbers Model.Tree Model.Parse Model.Document.
From TV Require Import Proofs.NumbersRT_Lex Proofs.NumbersRT_Int Proofs.NumbersRT_Float.

Theorem f32_roundtrip_from_f64 (is_inf : N -> bool) (shortest : N -> bytes) (back : fval -> N) :
  std_roundtrip_hyp classify64 is_inf shortest back ->
  forall b, fc_nan (classify32 b) = false -> fc_zero (classify32 b) = false -> is_inf (widen32 b) = false ->
    exists f r d,
      float (new_input (write_f32 b (shortest (widen32 b))))
      = Ok f (end_input (write_f32 b (shortest (widen32 b)))) /\
      parse_value_raw (write_f32 b (shortest (widen32 b))) = POk (VScalar (SFloat f) r d) /\
      back f = widen32 b.
Proof.
  intros H b Hn Hz Hi.
  rewrite (write_f32_finite b _ Hn Hz). unfold write_f64.
  apply (writer_roundtrip_finite classify64 is_inf shortest back H (widen32 b)).
  - rewrite widen32_nan. exact Hn.
  - rewrite widen32_zero. exact Hz.
  - exact Hi.
Qed.
