(* Proofs/EditVerbatim.v — property C08, the verbatim half at tree level: an operation leaves the
   own formatting of every entry it does not touch IDENTICAL.

   `lookup p k0 it`   the entry at path p below the item `it` (raw, structural: no filters), with the
                      key it is stored under (k0 for the empty path)
   `own i`            the item without its children: for a value its repr and decor, for an array its
                      decor / trailing / trailing comma, for an inline table its decor / preamble / flags,
                      for a table its header decor / flags / position, for a key everything (repr, leaf
                      decor, dotted decor) — i.e. everything the printer takes from this entry itself
   `entry_of p k0 it` = (stored key, own item) at p.
   An operation is described by the place P it works at, the set U of paths RELATIVE to P it leaves
   alone and the relocation R of relative paths (array insert / remove shift the later elements). *)
From TV Require Import Base.Prelude Spec.Ordered Model.Tree.
From TV Require Import Spec.EditSpec Model.Edit Proofs.ContainersOrder Proofs.EditRefineBase Proofs.EditRefine.
From TV Require Import Proofs.KvFacts.
Require Import Lia.

(** * Definitions *)

Definition own (it : item) : item :=
  match it with
  | INone => INone
  | IValue (VScalar s r d) => IValue (VScalar s r d)
  | IValue (VArray _ tr c d sp) => IValue (VArray [] tr c d sp)
  | IValue (VInline _ pre im dt d sp) => IValue (VInline [] pre im dt d sp)
  | ITable (Tbl _ d im dt p sp) => ITable (Tbl [] d im dt p sp)
  | IAot _ sp => IAot [] sp
  end.

Definition item_kvs (it : item) : option kvs :=
  match it with
  | ITable (Tbl items _ _ _ _ _) => Some items
  | IValue (VInline items _ _ _ _ _) => Some items
  | _ => None
  end.
Definition item_elems (it : item) : option (list item) :=
  match it with
  | IValue (VArray vals _ _ _ _) => Some vals
  | IAot ts _ => Some (map ITable ts)
  | _ => None
  end.

Fixpoint lookup (p : path) (k0 : option key) (it : item) : option (option key * item) :=
  match p with
  | [] => Some (k0, it)
  | SKey k :: p' =>
    match item_kvs it with
    | Some items => match kv_get items k with Some (k', i) => lookup p' (Some k') i | None => None end
    | None => None
    end
  | SIdx n :: p' =>
    match item_elems it with
    | Some l => match nth_error l n with Some i => lookup p' None i | None => None end
    | None => None
    end
  end.

Definition entry_of (p : path) (k0 : option key) (it : item) : option (option key * item) :=
  match lookup p k0 it with Some (k, i) => Some (k, own i) | None => None end.

(* the entry at path p of a document *)
Definition entry_repr (t : tbl) (p : path) : option (option key * item) := entry_of p None (ITable t).

Definition seg_eqb (a b : seg) : bool :=
  match a, b with
  | SKey x, SKey y => bytes_eqb x y
  | SIdx x, SIdx y => Nat.eqb x y
  | _, _ => false
  end.
Fixpoint path_strip (P p : path) : option path :=
  match P, p with
  | [], _ => Some p
  | a :: P', b :: p' => if seg_eqb a b then path_strip P' p' else None
  | _ :: _, [] => None
  end.
Definition is_prefix (P p : path) : bool := match path_strip P p with Some _ => true | None => false end.

(* what an operation working at a node leaves alone (U, relative paths) and where it moves it (R) *)
Definition keeps (f : item -> option item) (U : path -> bool) (R : path -> path) : Prop :=
  forall i i', f i = Some i' ->
  forall q k0 e, U q = true -> entry_of q k0 i = Some e -> entry_of (R q) k0 i' = Some e.

Definition U_at (P : path) (U : path -> bool) (p : path) : bool :=
  match path_strip P p with Some q => U q | None => true end.
Definition R_at (P : path) (R : path -> path) (p : path) : path :=
  match path_strip P p with Some q => P ++ R q | None => p end.

(** * Shape of one step of at_path *)

Lemma seg_eqb_eq a b : seg_eqb a b = true -> a = b.
Proof.
  destruct a as [x|x], b as [y|y]; simpl; intro H; try discriminate.
  - apply bytes_eqb_eq in H. subst. reflexivity.
  - apply Nat.eqb_eq in H. subst. reflexivity.
Qed.
Lemma seg_eqb_refl a : seg_eqb a a = true.
Proof. destruct a; simpl; [apply bytes_eqb_refl|apply Nat.eqb_refl]. Qed.

(* one common first step *)
Lemma R_at_cons s P R q : R_at (s :: P) R (s :: q) = s :: R_at P R q.
Proof. unfold R_at. simpl. rewrite seg_eqb_refl. destruct (path_strip P q); reflexivity. Qed.
Lemma R_at_other s s2 P R q : seg_eqb s s2 = false -> R_at (s :: P) R (s2 :: q) = s2 :: q.
Proof. intro E. unfold R_at. simpl. rewrite E. reflexivity. Qed.
Lemma U_at_cons s P U q : U_at (s :: P) U (s :: q) = U_at P U q.
Proof. unfold U_at. simpl. rewrite seg_eqb_refl. reflexivity. Qed.

Lemma kv_upd_get_same k F m m' :
  kv_upd k F m = Some m' ->
  exists k' i i', kv_get m k = Some (k', i) /\ kv_get m' k = Some (k', i') /\ F i = Some i'.
Proof.
  revert m'. induction m as [|[k1 v] m IH]; intros m' H; simpl in H; [discriminate|].
  destruct (bytes_eqb (k_key k1) k) eqn:E.
  - destruct (F v) as [v'|] eqn:Fv; simpl in H; [|discriminate]. injection H as <-.
    exists k1, v, v'. simpl. rewrite E. auto.
  - destruct (kv_upd k F m) as [m1|]; simpl in H; [|discriminate]. injection H as <-.
    destruct (IH m1 eq_refl) as (k' & i & i' & G & G' & Fi).
    exists k', i, i'. simpl. rewrite E. auto.
Qed.

Lemma kv_upd_get_other k k2 F m m' :
  kv_upd k F m = Some m' -> bytes_eqb k k2 = false -> kv_get m' k2 = kv_get m k2.
Proof.
  intros H N. revert m' H. induction m as [|[k1 v] m IH]; intros m' H; simpl in H; [discriminate|].
  destruct (bytes_eqb (k_key k1) k) eqn:E.
  - destruct (F v) as [v'|]; simpl in H; [|discriminate]. injection H as <-.
    apply bytes_eqb_eq in E. simpl. rewrite E, N. reflexivity.
  - destruct (kv_upd k F m) as [m1|]; simpl in H; [|discriminate]. injection H as <-.
    simpl. destruct (bytes_eqb (k_key k1) k2); [reflexivity|]. apply IH. reflexivity.
Qed.

Lemma nth_upd_same {A} n (F : A -> option A) l l' :
  nth_upd n F l = Some l' ->
  exists x x', nth_error l n = Some x /\ nth_error l' n = Some x' /\ F x = Some x'.
Proof.
  revert n l'. induction l as [|y l IH]; intros [|n] l' H; simpl in H; try discriminate.
  - destruct (F y) as [y'|] eqn:Fy; simpl in H; [|discriminate]. injection H as <-.
    exists y, y'. auto.
  - destruct (nth_upd n F l) as [l1|] eqn:E; simpl in H; [|discriminate]. injection H as <-.
    destruct (IH n l1 E) as (x & x' & G & G' & Fx). exists x, x'. auto.
Qed.
Lemma nth_upd_other {A} n m (F : A -> option A) l l' :
  nth_upd n F l = Some l' -> m <> n -> nth_error l' m = nth_error l m.
Proof.
  revert n m l'. induction l as [|y l IH]; intros [|n] m l' H N; simpl in H; try discriminate.
  - destruct (F y) as [y'|]; simpl in H; [|discriminate]. injection H as <-.
    destruct m; [congruence|reflexivity].
  - destruct (nth_upd n F l) as [l1|] eqn:E; simpl in H; [|discriminate]. injection H as <-.
    destruct m; [reflexivity|]. simpl. apply (IH n m l1 E). congruence.
Qed.

(* a key step *)
Lemma at_path_key_shape k P f it it' :
  at_path (SKey k :: P) f it = Some it' ->
  own it' = own it /\ item_elems it = None /\ item_elems it' = None /\
  exists items items',
    item_kvs it = Some items /\ item_kvs it' = Some items' /\
    (forall k2, bytes_eqb k k2 = false -> kv_get items' k2 = kv_get items k2) /\
    exists k' i i', kv_get items k = Some (k', i) /\ kv_get items' k = Some (k', i') /\ at_path P f i = Some i'.
Proof.
  intro H. simpl in H.
  destruct it as [|[s r d|vals tr c d sp|items pre im dt d sp]|[items d im dt pos sp]|ts sp]; try discriminate.
  - destruct (kv_upd k _ items) as [items'|] eqn:E; simpl in H; [|discriminate]. injection H as <-.
    repeat split; try reflexivity. exists items, items'. repeat split; try reflexivity.
    + intros k2 N. eapply kv_upd_get_other; eauto.
    + destruct (kv_upd_get_same _ _ _ _ E) as (k' & i & i' & G & G' & Fi).
      exists k', i, i'. repeat split; auto.
      cbv beta in Fi. destruct i as [|v| |]; try discriminate.
      destruct (at_path P f (IValue v)) as [[|v'| |]|]; try discriminate. exact Fi.
  - destruct (kv_upd k _ items) as [items'|] eqn:E; simpl in H; [|discriminate]. injection H as <-.
    repeat split; try reflexivity. exists items, items'. repeat split; try reflexivity.
    + intros k2 N. eapply kv_upd_get_other; eauto.
    + destruct (kv_upd_get_same _ _ _ _ E) as (k' & i & i' & G & G' & Fi).
      exists k', i, i'. repeat split; auto.
      cbv beta in Fi. destruct (item_is_none i); [discriminate|exact Fi].
Qed.

Lemma nth_error_map_ITable ts n : nth_error (map ITable ts) n = optmap ITable (nth_error ts n).
Proof. revert n. induction ts as [|t ts IH]; intros [|n]; simpl; try reflexivity. apply IH. Qed.

(* an index step *)
Lemma at_path_idx_shape n P f it it' :
  at_path (SIdx n :: P) f it = Some it' ->
  own it' = own it /\ item_kvs it = None /\ item_kvs it' = None /\
  exists l l',
    item_elems it = Some l /\ item_elems it' = Some l' /\
    (forall m, m <> n -> nth_error l' m = nth_error l m) /\
    exists i i', nth_error l n = Some i /\ nth_error l' n = Some i' /\ at_path P f i = Some i'.
Proof.
  intro H. simpl in H.
  destruct it as [|[s r d|vals tr c d sp|items pre im dt d sp]|[items d im dt pos sp]|ts sp]; try discriminate.
  - destruct (nth_upd n _ vals) as [vals'|] eqn:E; simpl in H; [|discriminate]. injection H as <-.
    repeat split; try reflexivity. exists vals, vals'. repeat split; try reflexivity.
    + intros m N. eapply nth_upd_other; eauto.
    + destruct (nth_upd_same _ _ _ _ E) as (x & x' & G & G' & Fx).
      exists x, x'. repeat split; auto.
      cbv beta in Fx. destruct x as [|v| |]; try discriminate.
      destruct (at_path P f (IValue v)) as [[|v'| |]|]; try discriminate. exact Fx.
  - destruct (nth_upd n _ ts) as [ts'|] eqn:E; simpl in H; [|discriminate]. injection H as <-.
    repeat split; try reflexivity. exists (map ITable ts), (map ITable ts'). repeat split; try reflexivity.
    + intros m N. rewrite !nth_error_map_ITable. f_equal. eapply nth_upd_other; eauto.
    + destruct (nth_upd_same _ _ _ _ E) as (x & x' & G & G' & Fx).
      exists (ITable x), (ITable x'). rewrite !nth_error_map_ITable, G, G'. repeat split; auto.
      cbv beta in Fx. destruct (at_path P f (ITable x)) as [[| |t'|]|]; simpl in Fx; try discriminate.
      injection Fx as <-. reflexivity.
Qed.

(** * Lifting a local statement along the path *)

Lemma entry_of_nil k0 it : entry_of [] k0 it = Some (k0, own it).
Proof. reflexivity. Qed.

Lemma at_path_keeps P f U R : keeps f U R -> keeps (at_path P f) (U_at P U) (R_at P R).
Proof.
  intro Hf. induction P as [|s P IH].
  - intros i i' H q k0 e Hu He. unfold U_at, R_at in *. simpl in *. eapply Hf; eauto.
  - intros it it' H q k0 e Hu He.
    destruct q as [|s2 q].
    + (* the node itself is an ancestor of the place *)
      unfold R_at. simpl. rewrite entry_of_nil in *.
      destruct s as [k|n].
      * destruct (at_path_key_shape _ _ _ _ _ H) as (O & _). rewrite O. exact He.
      * destruct (at_path_idx_shape _ _ _ _ _ H) as (O & _). rewrite O. exact He.
    + destruct (seg_eqb s s2) eqn:Es.
      * (* same first step: below the changed child *)
        apply seg_eqb_eq in Es. subst s2. rewrite R_at_cons. rewrite U_at_cons in Hu.
        destruct s as [k|n].
        -- destruct (at_path_key_shape _ _ _ _ _ H) as (_ & _ & _ & items & items' & K & K' & _ & k' & i & i' & G & G' & A).
           unfold entry_of in *. simpl in *. rewrite K in He. rewrite K'. rewrite G in He. rewrite G'.
           apply (IH i i' A q (Some k') e Hu He).
        -- destruct (at_path_idx_shape _ _ _ _ _ H) as (_ & _ & _ & l & l' & K & K' & _ & i & i' & G & G' & A).
           unfold entry_of in *. simpl in *. rewrite K in He. rewrite K'. rewrite G in He. rewrite G'.
           apply (IH i i' A q None e Hu He).
      * (* another child: unchanged *)
        rewrite (R_at_other _ _ _ _ _ Es).
        destruct s as [k|n].
        -- destruct (at_path_key_shape _ _ _ _ _ H) as (_ & E1 & E2 & items & items' & K & K' & Oth & _).
           unfold entry_of in *. destruct s2 as [k2|n2]; simpl in *.
           ++ rewrite K in He. rewrite K'. rewrite (Oth k2 Es). exact He.
           ++ rewrite E1 in He. discriminate.
        -- destruct (at_path_idx_shape _ _ _ _ _ H) as (_ & E1 & E2 & l & l' & K & K' & Oth & _).
           unfold entry_of in *. destruct s2 as [k2|n2]; simpl in *.
           ++ rewrite E1 in He. discriminate.
           ++ rewrite K in He. rewrite K'. rewrite Oth; [exact He|].
              intro; subst. rewrite Nat.eqb_refl in Es. discriminate.
Qed.

(** * The operations at their node *)

Definition not_key (k : bytes) (q : path) : bool :=
  match q with SKey k2 :: _ => negb (bytes_eqb k k2) | _ => true end.
Definition not_idx (n : nat) (q : path) : bool :=
  match q with SIdx m :: _ => negb (Nat.eqb n m) | _ => true end.
Definition ident (q : path) : path := q.

(* keys other than k are looked up as before *)
Lemma kv_get_set_fmt_other m k k2 v : bytes_eqb k k2 = false -> kv_get (kv_set_fmt m k v) k2 = kv_get m k2.
Proof.
  intro N. induction m as [|[k1 v1] m IH]; simpl; [reflexivity|].
  destruct (bytes_eqb (k_key k1) k) eqn:E; simpl.
  - apply bytes_eqb_eq in E. rewrite E, N. reflexivity.
  - destruct (bytes_eqb (k_key k1) k2); [reflexivity|exact IH].
Qed.
Lemma kv_get_purge_other m k k2 : bytes_eqb k k2 = false -> kv_get (kv_purge m k) k2 = kv_get m k2.
Proof.
  intro N. unfold kv_purge. destruct (kv_get m k) as [[k' [| | |]]|]; try reflexivity.
  apply kv_get_remove_other. exact N.
Qed.
Lemma kv_get_items_insert_other m k k2 v : bytes_eqb k k2 = false -> kv_get (items_insert m k v) k2 = kv_get m k2.
Proof.
  intro N. unfold items_insert. rewrite <- (kv_get_purge_other m k k2 N). destruct (kv_get (kv_purge m k) k).
  - apply kv_get_set_fmt_other. exact N.
  - apply kv_get_push_other. exact N.
Qed.

(* the operations that rewrite the entries of a table or inline-table node and nothing else *)
Definition on_items (f : item -> option item) (g : kvs -> kvs) : Prop :=
  forall i i', f i = Some i' ->
    match i with
    | IValue (VInline m pre im dt d sp) => i' = IValue (VInline (g m) pre im dt d sp)
    | ITable (Tbl m d im dt p sp) => i' = ITable (Tbl (g m) d im dt p sp)
    | _ => False
    end.

Lemma op_insert_on_items k v : on_items (op_insert k v) (fun m => items_insert m k (IValue (build_value v))).
Proof. intros [|[| |]|[]|] i' H; simpl in H; try discriminate; injection H as <-; reflexivity. Qed.
Lemma op_insert_item_on_items k x : on_items (op_insert_item k x) (fun m => items_insert m k x).
Proof. intros [| |[]|] i' H; simpl in H; try discriminate; injection H as <-; reflexivity. Qed.
Lemma op_remove_on_items k : on_items (op_remove k) (fun m => kv_remove m k).
Proof. intros [|[| |]|[]|] i' H; simpl in H; try discriminate; injection H as <-; reflexivity. Qed.

Lemma keeps_items (f : item -> option item) (g : kvs -> kvs) k :
  on_items f g -> (forall m k2, bytes_eqb k k2 = false -> kv_get (g m) k2 = kv_get m k2) ->
  keeps f (not_key k) ident.
Proof.
  intros Hs Hg i i' H q k0 e Hu He. unfold ident. specialize (Hs _ _ H).
  destruct i as [|[| |m pre im dt d sp]|[m d im dt p sp]|]; try contradiction; subst i'.
  all: destruct q as [|[k2|n] q]; unfold entry_of in *; simpl in *; [exact He| |discriminate].
  all: rewrite Hg; [exact He|]; destruct (bytes_eqb k k2); [discriminate|reflexivity].
Qed.

Lemma op_insert_keeps k v : keeps (op_insert k v) (not_key k) ident.
Proof. exact (keeps_items _ _ k (op_insert_on_items k v) (fun m k2 => kv_get_items_insert_other m k k2 _)). Qed.
Lemma op_insert_item_keeps k x : keeps (op_insert_item k x) (not_key k) ident.
Proof. exact (keeps_items _ _ k (op_insert_item_on_items k x) (fun m k2 => kv_get_items_insert_other m k k2 x)). Qed.
Lemma op_remove_keeps k : keeps (op_remove k) (not_key k) ident.
Proof. exact (keeps_items _ _ k (op_remove_on_items k) (fun m k2 => kv_get_remove_other m k k2)). Qed.

Lemma op_slot_keeps k conv : keeps (op_slot k conv) (not_key k) ident.
Proof.
  intros i i' H q k0 e Hu He. unfold ident.
  destruct i as [| |[items d im dt p sp]|]; simpl in H; try discriminate.
  destruct (kv_upd k _ items) as [items'|] eqn:E; simpl in H; [|discriminate]. injection H as <-.
  destruct q as [|[k2|n] q]; unfold entry_of in *; simpl in *.
  - exact He.
  - rewrite (kv_upd_get_other _ _ _ _ _ E); [exact He|].
    destruct (bytes_eqb k k2); [discriminate|reflexivity].
  - discriminate.
Qed.

(* -- vectors -- *)
Definition shift_up (n : nat) (q : path) : path :=
  match q with SIdx m :: q' => SIdx (if m <? n then m else S m) :: q' | _ => q end.
Definition shift_down (n : nat) (q : path) : path :=
  match q with SIdx m :: q' => SIdx (if m <? n then m else Nat.pred m) :: q' | _ => q end.

Lemma vec_insert_nth {A} n (x : A) l l' m y :
  vec_insert n x l = Some l' -> nth_error l m = Some y ->
  nth_error l' (if m <? n then m else S m) = Some y.
Proof.
  revert l l' m. induction n as [|n IH]; intros l l' m H G; simpl in H.
  - injection H as <-. exact G.
  - destruct l as [|z l]; [discriminate|].
    destruct (vec_insert n x l) as [l1|] eqn:E; simpl in H; [|discriminate]. injection H as <-.
    destruct m as [|m]; [exact G|]. simpl in G.
    specialize (IH l l1 m E G).
    change (S m <? S n) with (m <? n). destruct (m <? n); exact IH.
Qed.

Lemma vec_remove_nth {A} n (l : list A) y l' m :
  vec_remove n l = Some (y, l') -> m <> n ->
  nth_error l' (if m <? n then m else Nat.pred m) = nth_error l m.
Proof.
  revert n y l' m. induction l as [|z l IH]; intros [|n] y l' m H N; simpl in H; try discriminate.
  - injection H as <- <-. destruct m; [congruence|reflexivity].
  - destruct (vec_remove n l) as [[y1 l1]|] eqn:E; simpl in H; [|discriminate]. injection H as <- <-.
    destruct m as [|m]; [reflexivity|].
    change (S m <? S n) with (m <? n).
    assert (N' : m <> n) by congruence.
    specialize (IH n y1 l1 m E N').
    destruct (m <? n) eqn:L; [exact IH|].
    apply Nat.ltb_ge in L. destruct m as [|m]; [lia|]. simpl in *. exact IH.
Qed.

(* a function that rewrites the elements of an array-like node and nothing else: the element at index m,
   when u m allows it, is afterwards the element at index r m *)
Lemma keeps_elems (f : item -> option item) (u : nat -> bool) (r : nat -> nat) U R :
  (forall q, U q = match q with SIdx m :: _ => u m | _ => true end) ->
  (forall q, R q = match q with SIdx m :: q' => SIdx (r m) :: q' | _ => q end) ->
  (forall i i', f i = Some i' ->
     own i' = own i /\ item_kvs i = None /\
     exists l l', item_elems i = Some l /\ item_elems i' = Some l' /\
       forall m y, u m = true -> nth_error l m = Some y -> nth_error l' (r m) = Some y) ->
  keeps f U R.
Proof.
  intros HU HR Hs i i' H q k0 e Hu He.
  destruct (Hs _ _ H) as (O & K & l & l' & L & L' & Hn). rewrite HR. rewrite HU in Hu.
  destruct q as [|[k2|m] q].
  - rewrite entry_of_nil in *. rewrite O. exact He.
  - unfold entry_of in He. simpl in He. rewrite K in He. discriminate.
  - unfold entry_of in *. simpl in *. rewrite L in He. rewrite L'.
    destruct (nth_error l m) as [y|] eqn:G; [|discriminate].
    rewrite (Hn m y Hu G). exact He.
Qed.

Lemma not_eqb_neq n m : negb (Nat.eqb n m) = true -> m <> n.
Proof. intros H ->. rewrite Nat.eqb_refl in H. discriminate. Qed.

Lemma op_arr_push_keeps v : keeps (op_arr_push v) (fun _ => true) ident.
Proof.
  apply (keeps_elems _ (fun _ => true) (fun m => m)); try (intros [|[|] ?]; reflexivity).
  intros i i' H. destruct i as [|[|vals tr c d sp|]| |]; simpl in H; try discriminate. injection H as <-.
  split; [reflexivity|]. split; [reflexivity|]. eexists _, _. split; [reflexivity|]. split; [reflexivity|].
  intros m y _ G. rewrite nth_error_app1; [exact G|]. apply nth_error_Some. congruence.
Qed.

Lemma op_arr_insert_keeps n v : keeps (op_arr_insert n v) (fun _ => true) (shift_up n).
Proof.
  apply (keeps_elems _ (fun _ => true) (fun m => if m <? n then m else S m)); try (intros [|[|] ?]; reflexivity).
  intros i i' H. destruct i as [|[|vals tr c d sp|]| |]; simpl in H; try discriminate.
  destruct (vec_insert n _ vals) as [vals'|] eqn:E; simpl in H; [|discriminate]. injection H as <-.
  split; [reflexivity|]. split; [reflexivity|]. eexists _, _. split; [reflexivity|]. split; [reflexivity|].
  intros m y _ G. eapply vec_insert_nth; eauto.
Qed.

Lemma op_arr_remove_keeps n : keeps (op_arr_remove n) (not_idx n) (shift_down n).
Proof.
  apply (keeps_elems _ (fun m => negb (Nat.eqb n m)) (fun m => if m <? n then m else Nat.pred m));
    try (intros [|[|] ?]; reflexivity).
  intros i i' H. destruct i as [|[|vals tr c d sp|]| |]; simpl in H; try discriminate.
  destruct (vec_remove n vals) as [[y0 vals']|] eqn:E; [|discriminate].
  destruct y0; try discriminate. injection H as <-.
  split; [reflexivity|]. split; [reflexivity|]. eexists _, _. split; [reflexivity|]. split; [reflexivity|].
  intros m y Hu G. rewrite <- G. exact (vec_remove_nth _ _ _ _ _ E (not_eqb_neq _ _ Hu)).
Qed.

Lemma op_arr_replace_keeps n v : keeps (op_arr_replace n v) (not_idx n) ident.
Proof.
  apply (keeps_elems _ (fun m => negb (Nat.eqb n m)) (fun m => m)); try (intros [|[|] ?]; reflexivity).
  intros i i' H. destruct i as [|[|vals tr c d sp|]| |]; simpl in H; try discriminate.
  destruct (nth_upd n _ vals) as [vals'|] eqn:E; simpl in H; [|discriminate]. injection H as <-.
  split; [reflexivity|]. split; [reflexivity|]. eexists _, _. split; [reflexivity|]. split; [reflexivity|].
  intros m y Hu G. rewrite <- G. exact (nth_upd_other _ _ _ _ _ E (not_eqb_neq _ _ Hu)).
Qed.

Lemma op_aot_push_keeps : keeps op_aot_push (fun _ => true) ident.
Proof.
  apply (keeps_elems _ (fun _ => true) (fun m => m)); try (intros [|[|] ?]; reflexivity).
  intros i i' H. destruct i as [| | |ts sp]; simpl in H; try discriminate. injection H as <-.
  split; [reflexivity|]. split; [reflexivity|]. eexists _, _. split; [reflexivity|]. split; [reflexivity|].
  intros m y _ G. rewrite map_app, nth_error_app1; [exact G|]. apply nth_error_Some. congruence.
Qed.

Lemma op_aot_remove_keeps n : keeps (op_aot_remove n) (not_idx n) (shift_down n).
Proof.
  apply (keeps_elems _ (fun m => negb (Nat.eqb n m)) (fun m => if m <? n then m else Nat.pred m));
    try (intros [|[|] ?]; reflexivity).
  intros i i' H. destruct i as [| | |ts sp]; simpl in H; try discriminate.
  destruct (vec_remove n ts) as [[y0 ts']|] eqn:E; simpl in H; [|discriminate]. injection H as <-.
  split; [reflexivity|]. split; [reflexivity|]. eexists _, _. split; [reflexivity|]. split; [reflexivity|].
  intros m y Hu G. rewrite <- G, !nth_error_map_ITable. f_equal.
  exact (vec_remove_nth _ _ _ _ _ E (not_eqb_neq _ _ Hu)).
Qed.

(** * fmt: the node and its direct children are reformatted, nothing deeper *)

Definition deeper (q : path) : bool := match q with _ :: _ :: _ => true | _ => false end.

Lemma lookup_cons_indep s q k0 k1 i i' :
  item_kvs i = item_kvs i' -> item_elems i = item_elems i' ->
  lookup (s :: q) k0 i = lookup (s :: q) k1 i'.
Proof. intros E1 E2. destruct s; simpl; [rewrite E1|rewrite E2]; reflexivity. Qed.

Definition same_children (a b : item) : Prop := item_kvs a = item_kvs b /\ item_elems a = item_elems b.

Lemma value_clear_decor_children v : same_children (IValue (value_clear_decor v)) (IValue v).
Proof. destruct v; split; reflexivity. Qed.
Lemma value_decorate_children v p s : same_children (IValue (value_decorate v p s)) (IValue v).
Proof. destruct v; split; reflexivity. Qed.

Lemma kv_get_decorate m k :
  match kv_get m k, kv_get (decorate_items m) k with
  | Some (_, a), Some (_, b) => same_children b a
  | None, None => True
  | _, _ => False
  end.
Proof.
  induction m as [|[k1 i] m IH]; simpl; [exact I|].
  destruct i as [|v| |]; simpl; destruct (bytes_eqb (k_key k1) k); try exact IH; try (split; reflexivity).
  apply value_clear_decor_children.
Qed.

Lemma nth_decorate_elems first l n :
  match nth_error l n, nth_error (decorate_elems first l) n with
  | Some a, Some b => same_children b a
  | None, None => True
  | _, _ => False
  end.
Proof.
  revert first n. induction l as [|x l IH]; intros first n.
  - destruct n; exact I.
  - destruct x as [|v| |]; destruct n as [|n]; simpl; try (split; reflexivity); try apply IH.
    apply value_decorate_children.
Qed.

Lemma op_fmt_keeps : keeps op_fmt deeper ident.
Proof.
  intros i i' H q k0 e Hu He. unfold ident.
  destruct q as [|s1 [|s2 q]]; try discriminate.
  unfold entry_of in *.
  destruct i as [|[|vals tr c d sp|items pre im dt d sp]|[items d im dt p sp]|]; simpl in H; try discriminate;
    injection H as <-.
  - (* array *)
    destruct s1 as [k|n]; [discriminate|].
    cbn [lookup item_elems] in He. cbn [lookup item_elems array_fmt].
    pose proof (nth_decorate_elems true vals n) as Hn.
    destruct (nth_error vals n) as [a|]; [|discriminate].
    destruct (nth_error (decorate_elems true vals) n) as [b|]; [|contradiction].
    destruct Hn as [E1 E2]. rewrite E1, E2. exact He.
  - (* inline table *)
    destruct s1 as [k|n]; [|discriminate].
    cbn [lookup item_kvs] in He. cbn [lookup item_kvs].
    pose proof (kv_get_decorate items k) as Hn.
    destruct (kv_get items k) as [[ka a]|]; [|discriminate].
    destruct (kv_get (decorate_items items) k) as [[kb b]|]; [|contradiction].
    destruct Hn as [E1 E2]. rewrite E1, E2. exact He.
  - (* table *)
    destruct s1 as [k|n]; [|discriminate].
    cbn [lookup item_kvs tbl_with_items] in He. cbn [lookup item_kvs tbl_with_items].
    pose proof (kv_get_decorate items k) as Hn.
    destruct (kv_get items k) as [[ka a]|]; [|discriminate].
    destruct (kv_get (decorate_items items) k) as [[kb b]|]; [|contradiction].
    destruct Hn as [E1 E2]. rewrite E1, E2. exact He.
Qed.

(** * sort / sort_by: every entry keeps its own formatting (only the order changes) *)

Lemma key_leb_refl a : key_leb a a = true.
Proof. unfold key_leb. rewrite key_compare_refl. reflexivity. Qed.

Lemma kv_get_map (g : item -> item) m k :
  kv_get (map (fun kv : key * item => match kv with (k0, i) => (k0, g i) end) m) k
  = match kv_get m k with Some (k', i) => Some (k', g i) | None => None end.
Proof.
  induction m as [|[k1 i1] m IH]; simpl; [reflexivity|].
  destruct (bytes_eqb (k_key k1) k); [reflexivity|exact IH].
Qed.

Definition kkeys_b (m : kvs) : list bytes := map (fun kv : key * item => k_key (fst kv)) m.
Lemma kkeys_b_map (g : item -> item) m :
  kkeys_b (map (fun kv : key * item => match kv with (k0, i) => (k0, g i) end) m) = kkeys_b m.
Proof. unfold kkeys_b. rewrite map_map. apply map_ext. intros [k i]. reflexivity. Qed.

Lemma tbl_is_map_eq items d im dt p sp :
  tbl_is_map (Tbl items d im dt p sp)
  = keys_distinct (kkeys_b items)
    && forallb (fun kv => match snd kv with ITable (Tbl _ _ _ true _ _ as sub) => tbl_is_map sub | _ => true end) items.
Proof.
  cbn [tbl_is_map]. unfold kkeys_b. f_equal. induction items as [|[k i] items IH]; [reflexivity|].
  cbn [forallb snd]. rewrite IH. reflexivity.
Qed.
Lemma inline_is_map_eq items pre im dt d sp :
  inline_is_map (VInline items pre im dt d sp)
  = keys_distinct (kkeys_b items)
    && forallb (fun kv => match snd kv with IValue (VInline _ _ _ true _ _ as sub) => inline_is_map sub | _ => true end) items.
Proof.
  cbn [inline_is_map]. unfold kkeys_b. f_equal. induction items as [|[k i] items IH]; [reflexivity|].
  cbn [forallb snd]. rewrite IH. reflexivity.
Qed.

(* an entry inserted in order is found under its key as if it stood in front, unless the comparator puts it
   behind an entry with the same key *)
Lemma kv_get_ins_by le x m k :
  (forall y, In y m -> k_key (fst y) = k_key (fst x) -> le x y = true) ->
  kv_get (kv_ins_by le x m) k = kv_get (x :: m) k.
Proof.
  destruct x as [kx ix]. induction m as [|[ky iy] m IH]; intro Hx; [reflexivity|].
  cbn [kv_ins_by]. destruct (le (kx, ix) (ky, iy)) eqn:L; [reflexivity|].
  cbn [kv_get fst] in *. destruct (bytes_eqb (k_key ky) k) eqn:Ey.
  - destruct (bytes_eqb (k_key kx) k) eqn:Ex; [|reflexivity].
    apply bytes_eqb_eq in Ex, Ey. rewrite (Hx _ (or_introl eq_refl)) in L by (cbn [fst]; congruence). discriminate.
  - rewrite IH by (intros z Hz; apply Hx; right; exact Hz). reflexivity.
Qed.

(* sort_values_by on distinct keys *)
Lemma kv_get_sort_by le m k : keys_distinct (kkeys_b m) = true -> kv_get (kv_sort_by le m) k = kv_get m k.
Proof.
  induction m as [|x m IH]; intro Hd; [reflexivity|].
  unfold kkeys_b in Hd. cbn [map keys_distinct] in Hd. apply andb_true_iff in Hd as [H1 H2]. apply negb_true_iff in H1.
  cbn [kv_sort_by]. rewrite kv_get_ins_by.
  - destruct x as [k1 i1]. simpl kv_get. rewrite (IH H2). reflexivity.
  - intros y Hy E. apply (Permutation.Permutation_in _ (kv_sort_by_perm le m)) in Hy.
    rewrite <- Bool.not_true_iff_false in H1. contradict H1. apply existsb_exists. exists (k_key (fst y)).
    split; [apply (in_map (fun kv : key * item => k_key (fst kv))); exact Hy|rewrite E; apply bytes_eqb_refl].
Qed.
(* sort_values: entries with the same key stay in order *)
Lemma kv_get_sort_keys m k : kv_get (kv_sort_keys m) k = kv_get m k.
Proof.
  rewrite kv_sort_keys_by. induction m as [|x m IH]; [reflexivity|].
  cbn [kv_sort_by]. rewrite kv_get_ins_by.
  - destruct x as [k1 i1]. simpl kv_get. rewrite IH. reflexivity.
  - intros y _ E. unfold kle_kv. rewrite E. apply key_leb_refl.
Qed.

(* What the verbatim statements ask of a sort (Proofs/EditRefine.v: sorts_tbl / sorts_inline): under the
   condition `ok` on the node (none for sort_values, tbl_is_map for sort_values_by), which passes to the
   dotted children, every key is looked up as before. *)
Definition tsort_gets (srt : kvs -> kvs) (tsort : tbl -> tbl) (ok : tbl -> bool) : Prop :=
  sorts_tbl srt tsort /\
  forall items d im dt p sp, ok (Tbl items d im dt p sp) = true ->
    (forall m k, kkeys_b m = kkeys_b items -> kv_get (srt m) k = kv_get m k) /\
    (forall k i, In (k, i) items -> dotted_tbl (fun sub => ok sub = true) i).
Definition vsort_gets (srt : kvs -> kvs) (vsort : value -> value) (ok : value -> bool) : Prop :=
  sorts_inline srt vsort /\
  forall items pre im dt d sp, ok (VInline items pre im dt d sp) = true ->
    (forall m k, kkeys_b m = kkeys_b items -> kv_get (srt m) k = kv_get m k) /\
    (forall k i, In (k, i) items -> dotted_inline (fun sub => ok sub = true) i).

Lemma sort_values_tbl_gets : tsort_gets kv_sort_keys tbl_sort_values (fun _ => true).
Proof.
  split; [exact sort_values_tbl|]. intros items d im dt p sp _. split; [intros; apply kv_get_sort_keys|].
  intros k [| |[? ? ? [|] ? ?]|] _; reflexivity.
Qed.
Lemma sort_values_inline_gets : vsort_gets kv_sort_keys inline_sort_values (fun _ => true).
Proof.
  split; [exact sort_values_inline|]. intros items pre im dt d sp _. split; [intros; apply kv_get_sort_keys|].
  intros k [|[| |? ? ? [|] ? ?]| |] _; reflexivity.
Qed.
Lemma sort_by_tbl_gets cm : tsort_gets (kv_sort_by (tcmp_le cm)) (tbl_sort_by cm) tbl_is_map.
Proof.
  split; [exact (sort_by_tbl cm)|]. intros items d im dt p sp Hm.
  rewrite tbl_is_map_eq in Hm. apply andb_true_iff in Hm as [Hd Hc]. split.
  - intros m k E. apply kv_get_sort_by. rewrite E. exact Hd.
  - intros k i Hin. rewrite forallb_forall in Hc. specialize (Hc _ Hin).
    destruct i as [| |[? ? ? [|] ? ?]|]; try exact I. exact Hc.
Qed.
Lemma sort_by_inline_gets cm : vsort_gets (kv_sort_by (icmp_le cm)) (inline_sort_by cm) inline_is_map.
Proof.
  split; [exact (sort_by_inline cm)|]. intros items pre im dt d sp Hm.
  rewrite inline_is_map_eq in Hm. apply andb_true_iff in Hm as [Hd Hc]. split.
  - intros m k E. apply kv_get_sort_by. rewrite E. exact Hd.
  - intros k i Hin. rewrite forallb_forall in Hc. specialize (Hc _ Hin).
    destruct i as [|[| |? ? ? [|] ? ?]| |]; try exact I. exact Hc.
Qed.

Definition same_entries (a b : item) : Prop := forall q k0, entry_of q k0 b = entry_of q k0 a.

Section SortSame.
  Variables (tsrt vsrt : kvs -> kvs) (tsort : tbl -> tbl) (vsort : value -> value).
  Variables (okt : tbl -> bool) (okv : value -> bool).
  Hypothesis Ht : tsort_gets tsrt tsort okt.
  Hypothesis Hv : vsort_gets vsrt vsort okv.

  Lemma sort_same :
    (forall v, okv v = true -> same_entries (IValue v) (IValue (vsort v))) /\
    (forall t, okt t = true -> same_entries (ITable t) (ITable (tsort t))).
  Proof.
    destruct Ht as [Hts Htg], Hv as [Hvs Hvg]. apply dotted_ind.
    - intros s r d _ q k0. rewrite Hvs. reflexivity.
    - intros vals tr c d sp _ q k0. rewrite Hvs. reflexivity.
    - intros items pre im dt d sp IH Hok q k0. destruct (Hvg _ _ _ _ _ _ Hok) as [Hg Hc].
      rewrite Hvs. unfold entry_of. destruct q as [|[k|n] q]; [reflexivity| |reflexivity].
      simpl lookup. rewrite Hg by apply kkeys_b_map. unfold vchild. rewrite kv_get_map.
      destruct (kv_get items k) as [[k' i]|] eqn:G; [|reflexivity].
      specialize (IH _ _ (kv_get_In _ _ _ _ G)). specialize (Hc _ _ (kv_get_In _ _ _ _ G)).
      destruct i as [|[| |items0 pre0 im0 [|] d0 sp0]| |]; try reflexivity. apply (IH Hc q (Some k')).
    - intros items d im dt p sp IH Hok q k0. destruct (Htg _ _ _ _ _ _ Hok) as [Hg Hc].
      rewrite Hts. unfold entry_of. destruct q as [|[k|n] q]; [reflexivity| |reflexivity].
      simpl lookup. rewrite Hg by apply kkeys_b_map. unfold tchild. rewrite kv_get_map.
      destruct (kv_get items k) as [[k' i]|] eqn:G; [|reflexivity].
      specialize (IH _ _ (kv_get_In _ _ _ _ G)). specialize (Hc _ _ (kv_get_In _ _ _ _ G)).
      destruct i as [| |[items0 d0 im0 [|] p0 sp0]|]; try reflexivity. apply (IH Hc q (Some k')).
  Qed.

  Lemma sort_op_keeps : keeps (sort_op okt okv tsort vsort) (fun _ => true) ident.
  Proof.
    intros i i' H q k0 e _ He. unfold ident.
    destruct i as [|[| |items pre im dt d sp]|t|]; simpl in H; try discriminate.
    - destruct (okv _) eqn:Hok; [|discriminate]. injection H as <-. rewrite (proj1 sort_same _ Hok q k0). exact He.
    - destruct (okt t) eqn:Hok; [|discriminate]. injection H as <-. rewrite (proj2 sort_same _ Hok q k0). exact He.
  Qed.
End SortSame.

Lemma sort_same_entries :
  (forall v, same_entries (IValue v) (IValue (inline_sort_values v))) /\
  (forall t, same_entries (ITable t) (ITable (tbl_sort_values t))).
Proof.
  destruct (sort_same _ _ _ _ _ _ sort_values_tbl_gets sort_values_inline_gets) as [Hv Ht].
  split; [intro v; exact (Hv v eq_refl)|intro t; exact (Ht t eq_refl)].
Qed.
Lemma sort_by_same_entries cm :
  (forall v, inline_is_map v = true -> same_entries (IValue v) (IValue (inline_sort_by cm v))) /\
  (forall t, tbl_is_map t = true -> same_entries (ITable t) (ITable (tbl_sort_by cm t))).
Proof. exact (sort_same _ _ _ _ _ _ (sort_by_tbl_gets cm) (sort_by_inline_gets cm)). Qed.

Lemma op_sort_keeps : keeps op_sort (fun _ => true) ident.
Proof.
  intros i i' H. rewrite op_sort_eq in H. revert i i' H.
  exact (sort_op_keeps _ _ _ _ _ _ sort_values_tbl_gets sort_values_inline_gets).
Qed.
Lemma op_sort_by_keeps cm : keeps (op_sort_by cm) (fun _ => true) ident.
Proof.
  intros i i' H. rewrite op_sort_by_eq in H. revert i i' H.
  exact (sort_op_keeps _ _ _ _ _ _ (sort_by_tbl_gets cm) (sort_by_inline_gets cm)).
Qed.

(** * IndexMut: everything off the assigned path, and the existing tables along it *)

Lemma kv_get_push_none_other m k k2 v : bytes_eqb k k2 = false -> kv_get (kv_push m (key_new k) v) k2 = kv_get m k2.
Proof. exact (kv_get_push_other m (key_new k) v k2). Qed.

Lemma entry_or_none_fst_other items k k2 :
  bytes_eqb k k2 = false -> kv_get (fst (entry_or_none items k)) k2 = kv_get items k2.
Proof.
  intro N. unfold entry_or_none. rewrite <- (kv_get_purge_other items k k2 N).
  destruct (kv_get (kv_purge items k) k) as [[k' i]|]; simpl; [reflexivity|].
  apply kv_get_push_other. exact N.
Qed.

(* the entry under k holds something: nothing is dropped, the slot handed out is that entry *)
Lemma entry_or_none_same items k k' i :
  kv_get items k = Some (k', i) -> i <> INone -> entry_or_none items k = (items, i).
Proof.
  intros G Hi. unfold entry_or_none, kv_purge. rewrite G.
  destruct i as [|v|t|ts sp]; [contradiction| | |]; rewrite G; reflexivity.
Qed.

Lemma entry_of_key k q k0 it :
  entry_of (SKey k :: q) k0 it
  = match item_kvs it with
    | Some items => match kv_get items k with Some (k', i) => entry_of q (Some k') i | None => None end
    | None => None
    end.
Proof.
  unfold entry_of. simpl. destruct (item_kvs it) as [items|]; [|reflexivity].
  destruct (kv_get items k) as [[k' i]|]; reflexivity.
Qed.

Lemma iset_keeps ks x : forall it it',
  iset ks x it = Some it' ->
  forall q k0 e, is_prefix (map SKey ks) q = false -> entry_of q k0 it = Some e -> snd e <> INone ->
  entry_of q k0 it' = Some e.
Proof.
  induction ks as [|k ks IH]; intros it it' H q k0 e Hp He Hn; [discriminate|].
  (* through a table or an inline table: the other keys are looked up as before; under k, by induction *)
  assert (Hitems : forall items slot' k2 q',
             iset ks x (snd (entry_or_none items k)) = Some slot' ->
             is_prefix (map SKey (k :: ks)) (SKey k2 :: q') = false ->
             match kv_get items k2 with Some (k', i) => entry_of q' (Some k') i | None => None end = Some e ->
             match kv_get (kv_set (fst (entry_or_none items k)) k slot') k2 with
             | Some (k', i) => entry_of q' (Some k') i
             | None => None
             end = Some e).
  { intros items slot' k2 q' E Hp' He'. unfold is_prefix in Hp'. simpl in Hp'.
    destruct (bytes_eqb k k2) eqn:Ek.
    - apply bytes_eqb_eq in Ek. subst k2.
      destruct (kv_get items k) as [[k' i]|] eqn:G; [|discriminate].
      assert (Hi : i <> INone).
      { intro; subst i. destruct q' as [|[k2|n] q']; try discriminate He'.
        rewrite entry_of_nil in He'. injection He' as <-. apply Hn. reflexivity. }
      rewrite (entry_or_none_same _ _ _ _ G Hi) in E |- *. cbn [fst snd] in E |- *.
      rewrite (kv_get_set_same _ _ _ _ _ G). exact (IH _ _ E q' (Some k') e Hp' He' Hn).
    - rewrite kv_get_set_other, entry_or_none_fst_other by exact Ek. exact He'. }
  destruct it as [|[s r d|vals tr c d sp|items pre im dt d sp]|[items d im dt p sp]|ts sp]; try discriminate.
  - (* a placeholder: not an entry *)
    destruct q as [|[k2|n] q]; [|unfold entry_of in He; simpl in He; discriminate..].
    rewrite entry_of_nil in He. injection He as <-. exfalso. apply Hn. reflexivity.
  - rewrite iset_inline in H. destruct (iset ks x _) as [slot'|] eqn:E; simpl in H; [|discriminate]. injection H as <-.
    destruct q as [|[k2|n] q]; [exact He| |exact He].
    rewrite entry_of_key in *. exact (Hitems _ _ _ _ E Hp He).
  - rewrite iset_tbl in H. destruct (iset ks x _) as [slot'|] eqn:E; simpl in H; [|discriminate]. injection H as <-.
    destruct q as [|[k2|n] q]; [exact He| |exact He].
    rewrite entry_of_key in *. exact (Hitems _ _ _ _ E Hp He).
Qed.

(** * The step *)

(* where an operation works (P), which paths relative to P it leaves alone (U), where they go (R) *)
Definition op_region (o : op) : path * (path -> bool) * (path -> path) :=
  match o with
  | OInsert p k _ | OInsertTable p k | OInsertAot p k | ORemove p k
  | OMakeValue p k | OIntoTable p k | OIntoAot p k => (p, not_key k, ident)
  | OArrPush p _ | OAotPush p | OSort p | OSortBy p _ => (p, fun _ => true, ident)
  | OArrInsert p i _ => (p, fun _ => true, shift_up i)
  | OArrReplace p i _ => (p, not_idx i, ident)
  | OArrRemove p i | OAotRemove p i => (p, not_idx i, shift_down i)
  | OFmt p => (p, deeper, ident)
  | OISet ks _ => ([], fun q => negb (is_prefix (map SKey ks) q), ident)
  end.

(* the entry at path p is not touched by o: p is not the edited entry nor inside it
   (insert / replace / remove / conversions: the entry of that key and what is below it;
    array replace / remove: that element; fmt: the container and its direct children;
    IndexMut: the assigned entry and what is below it; push / insert / sort: nothing existing) *)
Definition untouched (o : op) (p : path) : bool :=
  match op_region o with (P, U, _) => U_at P U p end.
(* where the entry is afterwards (array insert / remove shift the later elements) *)
Definition reloc (o : op) (p : path) : path :=
  match op_region o with (P, _, R) => R_at P R p end.

Theorem step_verbatim : forall t o t' p e,
  apply o t = Some t' -> untouched o p = true ->
  entry_repr t p = Some e -> snd e <> INone ->
  entry_repr t' (reloc o p) = Some e.
Proof.
  intros t o t' p e H Hu He Hn. unfold apply in H.
  destruct (op_fun o) as [P f] eqn:EO. apply as_tbl_abs in H.
  unfold entry_repr, untouched, reloc in *.
  assert (K : forall U R, keeps f U R -> op_region o = (P, U, R) ->
                          entry_of (match op_region o with (P, _, R) => R_at P R p end) None (ITable t') = Some e).
  { intros U R Hk Er. rewrite Er in *. exact (at_path_keeps P f U R Hk _ _ H p None e Hu He). }
  destruct o as [q k v|q k|q k|q k|q v|q i v|q i v|q i|q|q i|q|q|q k|q k|q k|ks x|q cm];
    simpl in EO; injection EO as <- <-.
  - exact (K _ _ (op_insert_keeps k v) eq_refl).
  - exact (K _ _ (op_insert_item_keeps k _) eq_refl).
  - exact (K _ _ (op_insert_item_keeps k _) eq_refl).
  - exact (K _ _ (op_remove_keeps k) eq_refl).
  - exact (K _ _ (op_arr_push_keeps v) eq_refl).
  - exact (K _ _ (op_arr_insert_keeps i v) eq_refl).
  - exact (K _ _ (op_arr_replace_keeps i v) eq_refl).
  - exact (K _ _ (op_arr_remove_keeps i) eq_refl).
  - exact (K _ _ op_aot_push_keeps eq_refl).
  - exact (K _ _ (op_aot_remove_keeps i) eq_refl).
  - exact (K _ _ op_sort_keeps eq_refl).
  - exact (K _ _ op_fmt_keeps eq_refl).
  - exact (K _ _ (op_slot_keeps k _) eq_refl).
  - exact (K _ _ (op_slot_keeps k _) eq_refl).
  - exact (K _ _ (op_slot_keeps k _) eq_refl).
  - clear K. simpl in *. unfold U_at, R_at, ident in *. simpl in *.
    destruct ks as [|k ks]; [discriminate|].
    rewrite app_nil_l || idtac.
    apply (iset_keeps _ _ _ _ H p None e); auto.
    destruct (is_prefix (map SKey (k :: ks)) p); [discriminate|reflexivity].
  - exact (K _ _ (op_sort_by_keeps cm) eq_refl).
Qed.

(* histories: an entry no operation of the history touches (followed through the relocations) *)
Fixpoint untouched_all (ops : list op) (p : path) : bool :=
  match ops with
  | [] => true
  | o :: tl => untouched o p && untouched_all tl (reloc o p)
  end.
Fixpoint reloc_all (ops : list op) (p : path) : path :=
  match ops with
  | [] => p
  | o :: tl => reloc_all tl (reloc o p)
  end.

Theorem history_verbatim : forall ops t t' p e,
  apply_seq ops t = Some t' -> untouched_all ops p = true ->
  entry_repr t p = Some e -> snd e <> INone ->
  entry_repr t' (reloc_all ops p) = Some e.
Proof.
  induction ops as [|o ops IH]; intros t t' p e H Hu He Hn; simpl in *.
  - injection H as <-. exact He.
  - destruct (apply o t) as [t1|] eqn:E; [|discriminate].
    apply andb_true_iff in Hu as [Hu1 Hu2].
    apply (IH t1 t' (reloc o p) e H Hu2); [|exact Hn].
    exact (step_verbatim _ _ _ _ _ E Hu1 He Hn).
Qed.
