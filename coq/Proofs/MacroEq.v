(* Proofs/MacroEq.v — C19: `eval` (Spec/MacroSpec.v) against the unmodified claims interpreter `spec_run`
   (Spec/Defs.v, the specification C09 proves the parser's state machine equal to).  The two differ in ONE
   place: when a `[header]` arrives for a table that so far exists only as a super-table, Spec/Defs.v moves
   the table to the end of its parent (`def_table`), `eval` leaves it where it is (`def_table_here`).
   Consequently the trees have the same content under every key, recursively, and may differ in the ORDER
   of keys only (`same`), which a toml::Table (a BTreeMap) does not observe. *)
From TV Require Import Base.Prelude Model.Macro Spec.Defs Spec.MacroSpec Proofs.MacroSem.
From TV Require Import Base.BytesFacts.
From TV Require Import Proofs.DefsEquivSpec.

Lemma NoDup_app_snoc : forall {A} (l : list A) x, NoDup l -> ~ In x l -> NoDup (l ++ [x]).
Proof.
  induction l as [|a l IH]; intros x H Hx; cbn [app]; [constructor; [intros []|constructor]|].
  inversion H as [|? ? Ha Hl]; subst. constructor.
  - intro Hin. apply in_app_or in Hin as [Hin|[Hin|[]]]; [exact (Ha Hin)|]. subst. apply Hx. left. reflexivity.
  - apply IH; [exact Hl|]. intro Hin. apply Hx. right. exact Hin.
Qed.

Section Eq.
Variable V : Type.
Notation tree := (stree V).

(* same content under every key, to depth n *)
Fixpoint same (n : nat) (a b : tree) : Prop :=
  match n with
  | O => True
  | S m =>
    forall k,
      match sget a k, sget b k with
      | None, None => True
      | Some (NVal x), Some (NVal y) => x = y
      | Some (NTab k1 c1), Some (NTab k2 c2) => k1 = k2 /\ same m c1 c2
      | Some (NAot e1), Some (NAot e2) => Forall2 (same m) e1 e2
      | _, _ => False
      end
  end.
Definition Same (a b : tree) : Prop := forall n, same n a b.

(* keys are unique at every level *)
Inductive Wf : tree -> Prop :=
| Wf_intro : forall t, NoDup (List.map fst t) ->
    (forall k kd c, In (k, NTab kd c) t -> Wf c) ->
    (forall k es e, In (k, NAot es) t -> In e es -> Wf e) -> Wf t.

(* ---- get / set ---- *)
Lemma bytes_eqb_sym : forall a b, bytes_eqb a b = bytes_eqb b a.
Proof. exact BytesFacts.bytes_eqb_sym. Qed.

Lemma sget_sset : forall (t : tree) k n k',
  sget (sset t k n) k' = if bytes_eqb k k' then (match sget t k with Some _ => Some n | None => None end) else sget t k'.
Proof.
  intros t k n k'. destruct (bytes_eqb k k') eqn:E; [|apply sget_sset_other, E].
  apply bytes_eqb_eq in E. subst k'. apply sget_sset_same.
Qed.

(* ---- one-level unfoldings of Same and Wf ---- *)
Definition shape (R : tree -> tree -> Prop) (x y : option (node V)) : Prop :=
  match x, y with
  | None, None => True
  | Some (NVal a), Some (NVal b) => a = b
  | Some (NTab k1 c1), Some (NTab k2 c2) => k1 = k2 /\ R c1 c2
  | Some (NAot e1), Some (NAot e2) => Forall2 R e1 e2
  | _, _ => False
  end.

Lemma same_S : forall m a b, same (S m) a b <-> forall k, shape (same m) (sget a k) (sget b k).
Proof. intros. reflexivity. Qed.

Lemma Forall2_all : forall (e1 e2 : list tree), (forall n, Forall2 (same n) e1 e2) -> Forall2 Same e1 e2.
Proof.
  induction e1 as [|a e1 IH]; intros e2 H.
  - specialize (H 0). inversion H. constructor.
  - destruct e2 as [|b e2]; [specialize (H 0); inversion H|].
    constructor.
    + intro n. specialize (H n). inversion H; assumption.
    + apply IH. intro n. specialize (H n). inversion H; assumption.
Qed.

Lemma Forall2_each : forall (e1 e2 : list tree) n, Forall2 Same e1 e2 -> Forall2 (same n) e1 e2.
Proof. intros e1 e2 n H. induction H; constructor; auto. Qed.

Lemma Same_get : forall a b k, Same a b -> shape Same (sget a k) (sget b k).
Proof.
  intros a b k H. pose proof (H 1) as H1. rewrite same_S in H1. specialize (H1 k).
  destruct (sget a k) as [[x|k1 c1|e1]|] eqn:Ea; destruct (sget b k) as [[y|k2 c2|e2]|] eqn:Eb; cbn [shape] in *; try contradiction; auto.
  - destruct H1 as [-> _]. split; [reflexivity|]. intro n. specialize (H (S n)). rewrite same_S in H. specialize (H k).
    rewrite Ea, Eb in H. cbn [shape] in H. tauto.
  - apply Forall2_all. intro n. specialize (H (S n)). rewrite same_S in H. specialize (H k). rewrite Ea, Eb in H. exact H.
Qed.

Lemma Same_intro : forall a b, (forall k, shape Same (sget a k) (sget b k)) -> Same a b.
Proof.
  intros a b H [|n]; [exact I|]. rewrite same_S. intro k. specialize (H k).
  destruct (sget a k) as [[x|k1 c1|e1]|]; destruct (sget b k) as [[y|k2 c2|e2]|]; cbn [shape] in *; try contradiction; auto.
  - destruct H as [-> H]. split; [reflexivity|apply H].
  - apply Forall2_each. exact H.
Qed.

Lemma Same_nil : Same [] [].
Proof. apply Same_intro. intro k. exact I. Qed.

Definition sub_wf (kn : bytes * node V) : Prop :=
  match snd kn with NVal _ => True | NTab _ c => Wf c | NAot es => Forall Wf es end.

Lemma Wf_unfold : forall t, Wf t <-> NoDup (List.map fst t) /\ Forall sub_wf t.
Proof.
  intro t. split.
  - intro H. inversion H as [t' Hnd Ht He]; subst. split; [exact Hnd|].
    apply Forall_forall. intros [k nd] Hin. unfold sub_wf. cbn [snd].
    destruct nd as [x|kd c|es]; [exact I|exact (Ht k kd c Hin)|].
    apply Forall_forall. intros e Hein. exact (He k es e Hin Hein).
  - intros [Hnd Hs]. rewrite Forall_forall in Hs. constructor; [exact Hnd| |].
    + intros k kd c Hin. exact (Hs _ Hin).
    + intros k es e Hin He. specialize (Hs _ Hin). unfold sub_wf in Hs. cbn [snd] in Hs.
      rewrite Forall_forall in Hs. exact (Hs e He).
Qed.

Lemma Wf_nil : Wf [].
Proof. apply Wf_unfold. split; constructor. Qed.

Lemma Wf_get : forall t k nd, Wf t -> sget t k = Some nd -> sub_wf (k, nd).
Proof.
  intros t k nd H Hg. apply Wf_unfold in H as [_ Hs]. rewrite Forall_forall in Hs. apply Hs. apply sget_in. exact Hg.
Qed.

Lemma keys_sset : forall (t : tree) k n, List.map fst (sset t k n) = List.map fst t.
Proof.
  induction t as [|[k0 n0] t IH]; intros k n; cbn [sset List.map fst]; [reflexivity|].
  destruct (bytes_eqb k0 k); cbn [List.map fst]; [reflexivity|]. rewrite IH. reflexivity.
Qed.

Lemma Forall_sset : forall (P : bytes * node V -> Prop) (t : tree) k n,
  Forall P t -> (forall k0, P (k0, n)) -> Forall P (sset t k n).
Proof.
  induction t as [|[k0 n0] t IH]; intros k n H Hn; cbn [sset]; [constructor|].
  inversion H; subst. destruct (bytes_eqb k0 k); constructor; auto.
Qed.

Lemma Wf_sset : forall t k nd, Wf t -> sub_wf (k, nd) -> Wf (sset t k nd).
Proof.
  intros t k nd H Hn. apply Wf_unfold in H as [Hnd Hs]. apply Wf_unfold. split.
  - rewrite keys_sset. exact Hnd.
  - apply Forall_sset; [exact Hs|]. intro k0. exact Hn.
Qed.

Lemma Wf_spush : forall t k nd, Wf t -> sget t k = None -> sub_wf (k, nd) -> Wf (spush t k nd).
Proof.
  intros t k nd H Hg Hn. apply Wf_unfold in H as [Hnd Hs]. apply Wf_unfold. unfold spush. split.
  - rewrite map_app. cbn [List.map fst]. apply NoDup_app_snoc; [exact Hnd|apply sget_none_notin; exact Hg].
  - apply Forall_app. split; [exact Hs|]. constructor; [exact Hn|constructor].
Qed.

(* ---- Same under updates ---- *)
Lemma Same_sset : forall a b k na nb, Same a b -> sget a k <> None -> sget b k <> None ->
  shape Same (Some na) (Some nb) -> Same (sset a k na) (sset b k nb).
Proof.
  intros a b k na nb H Ha Hb Hn. apply Same_intro. intro k'. rewrite !sget_sset.
  destruct (bytes_eqb k k').
  - destruct (sget a k); [|contradiction]. destruct (sget b k); [|contradiction]. exact Hn.
  - apply Same_get. exact H.
Qed.

Lemma Same_spush : forall a b k na nb, Same a b -> sget a k = None -> sget b k = None ->
  shape Same (Some na) (Some nb) -> Same (spush a k na) (spush b k nb).
Proof.
  intros a b k na nb H Ha Hb Hn. apply Same_intro. intro k'. rewrite !sget_spush.
  pose proof (Same_get a b k' H) as Hs.
  destruct (sget a k') as [xa|] eqn:Ea; destruct (sget b k') as [xb|] eqn:Eb; try exact Hs.
  - destruct xa; contradiction.
  - contradiction.
  - destruct (bytes_eqb k k'); [exact Hn|exact I].
Qed.

Lemma shape_none_r : forall R x, shape R x None -> x = None.
Proof. intros R [[x|k c|e]|] H; try contradiction; reflexivity. Qed.

(* ---- operations related: whenever the specification's succeeds, so does eval's, with the same content ---- *)
(* the invariant: the same content, and unique keys in the specification's tree (used where it moves a key) *)
Definition Rel (a b : tree) : Prop := Same a b /\ Wf b.

Lemma Rel_nil : Rel [] [].
Proof. split; [exact Same_nil|exact Wf_nil]. Qed.

Lemma shape_Rel : forall k x y, shape Rel (Some x) (Some y) <-> shape Same (Some x) (Some y) /\ sub_wf (k, y).
Proof.
  intros k [a|k1 c1|e1] [b|k2 c2|e2]; unfold sub_wf, Rel; cbn [shape snd]; try tauto.
  split.
  - intro H. split; induction H as [|? ? ? ? [? ?]]; constructor; assumption.
  - intros [H W]. induction H; constructor; inversion W; subst; [split; assumption|auto].
Qed.

Lemma Rel_get : forall a b k, Rel a b -> shape Rel (sget a k) (sget b k).
Proof.
  intros a b k [HS HW]. pose proof (Same_get a b k HS) as H.
  destruct (sget a k) as [x|]; destruct (sget b k) as [y|] eqn:Eb; try exact H.
  apply (shape_Rel k). split; [exact H|exact (Wf_get b k y HW Eb)].
Qed.

Lemma Rel_sset : forall a b k na nb, Rel a b -> sget a k <> None -> sget b k <> None ->
  shape Rel (Some na) (Some nb) -> Rel (sset a k na) (sset b k nb).
Proof.
  intros a b k na nb [HS HW] Ha Hb Hn. apply (shape_Rel k) in Hn as [Hn Hw].
  split; [apply Same_sset; assumption|apply Wf_sset; assumption].
Qed.

Lemma Rel_spush : forall a b k na nb, Rel a b -> sget a k = None -> sget b k = None ->
  shape Rel (Some na) (Some nb) -> Rel (spush a k na) (spush b k nb).
Proof.
  intros a b k na nb [HS HW] Ha Hb Hn. apply (shape_Rel k) in Hn as [Hn Hw].
  split; [apply Same_spush; assumption|apply Wf_spush; assumption].
Qed.

Definition op_rel (fe fs : tree -> res tree) : Prop :=
  forall ce cs cs', Rel ce cs -> fs cs = ROk cs' -> exists ce', fe ce = ROk ce' /\ Rel ce' cs'.

Lemma Forall2_snoc_inv : forall {A B} (R : A -> B -> Prop) l1 l2 b, Forall2 R l1 (l2 ++ [b]) ->
  exists l1' a, l1 = l1' ++ [a] /\ Forall2 R l1' l2 /\ R a b.
Proof.
  intros A B R l1 l2 b H. apply Forall2_app_inv_r in H as [l1' [la [H1 [H2 ->]]]].
  inversion H2 as [|a ? ? ? Hab Hnil]; subst. inversion Hnil; subst. exists l1', a. auto.
Qed.

Lemma at_path_rel : forall p fe fs, op_rel fe fs -> op_rel (at_path p fe) (at_path p fs).
Proof.
  induction p as [|k p IH]; intros fe fs Hop ce cs cs' HR H; [exact (Hop ce cs cs' HR H)|].
  cbn [at_path] in *. pose proof (Rel_get ce cs k HR) as Hk.
  destruct (sget cs k) as [[y|kd c|es]|] eqn:Es.
  - discriminate.
  - destruct (sget ce k) as [[x|kd' c'|es']|] eqn:Ee; cbn [shape] in Hk; try contradiction. destruct Hk as [-> Hc].
    destruct (at_path p fs c) as [c1| |] eqn:E1; cbn [rbind] in H; try discriminate. injection H as <-.
    destruct (IH fe fs Hop c' c c1 Hc E1) as [c1' [E1' HR1]].
    rewrite E1'. cbn [rbind]. eexists. split; [reflexivity|].
    apply Rel_sset; [exact HR|rewrite Ee; discriminate|rewrite Es; discriminate|]. cbn [shape]. split; [reflexivity|exact HR1].
  - destruct (sget ce k) as [[x|kd' c'|es']|] eqn:Ee; cbn [shape] in Hk; try contradiction.
    destruct (rev es) as [|e before] eqn:Er; [discriminate|].
    destruct (at_path p fs e) as [e1| |] eqn:E1; cbn [rbind] in H; try discriminate. injection H as <-.
    assert (Hes : es = rev before ++ [e]) by (rewrite <- (rev_involutive es), Er; reflexivity).
    rewrite Hes in Hk. destruct (Forall2_snoc_inv _ _ _ _ Hk) as [bef' [e' [-> [Hbef He]]]].
    rewrite rev_app_distr. cbn [rev app].
    destruct (IH fe fs Hop e' e e1 He E1) as [e1' [E1' HR1]].
    rewrite E1'. cbn [rbind]. eexists. split; [reflexivity|]. rewrite rev_involutive.
    apply Rel_sset; [exact HR|rewrite Ee; discriminate|rewrite Es; discriminate|]. cbn [shape].
    apply Forall2_app; [exact Hbef|constructor; [exact HR1|constructor]].
  - apply shape_none_r in Hk. rewrite Hk.
    destruct (at_path p fs []) as [c1| |] eqn:E1; cbn [rbind] in H; try discriminate. injection H as <-.
    destruct (IH fe fs Hop [] [] c1 Rel_nil E1) as [c1' [E1' HR1]].
    rewrite E1'. cbn [rbind]. eexists. split; [reflexivity|].
    apply Rel_spush; [exact HR|exact Hk|exact Es|]. cbn [shape]. split; [reflexivity|exact HR1].
Qed.

(* ---- the operations at the end of the path ---- *)
Lemma insert_kv_rel : forall p v, op_rel (insert_kv true p v) (insert_kv true p v).
Proof.
  induction p as [|k p IH]; intros v ce cs cs' HR H; [discriminate|].
  pose proof (Rel_get ce cs k HR) as Hk.
  destruct p as [|k2 p2].
  - cbn [insert_kv] in *. destruct (sget cs k) eqn:Es; [discriminate|]. injection H as <-.
    apply shape_none_r in Hk. rewrite Hk. eexists. split; [reflexivity|].
    apply Rel_spush; [exact HR|exact Hk|exact Es|reflexivity].
  - rewrite insert_kv_cons2 in *.
    destruct (sget cs k) as [[y|[| |] c|es]|] eqn:Es; try discriminate.
    + destruct (sget ce k) as [[x|kd' c'|es']|] eqn:Ee; cbn [shape] in Hk; try contradiction. destruct Hk as [-> Hc].
      destruct (insert_kv true (k2 :: p2) v c) as [c1| |] eqn:E1; cbn [rbind] in H; try discriminate. injection H as <-.
      destruct (IH v c' c c1 Hc E1) as [c1' [E1' HR1]].
      rewrite E1'. cbn [rbind]. eexists. split; [reflexivity|].
      apply Rel_sset; [exact HR|rewrite Ee; discriminate|rewrite Es; discriminate|]. cbn [shape]. split; [reflexivity|exact HR1].
    + apply shape_none_r in Hk. rewrite Hk.
      destruct (insert_kv true (k2 :: p2) v []) as [c1| |] eqn:E1; cbn [rbind] in H; try discriminate. injection H as <-.
      destruct (IH v [] [] c1 Rel_nil E1) as [c1' [E1' HR1]].
      assert (Hc1 : c1' = c1) by congruence. subst c1'. cbn [rbind]. eexists. split; [reflexivity|].
      apply Rel_spush; [exact HR|exact Hk|exact Es|]. cbn [shape]. split; [reflexivity|exact HR1].
Qed.

Lemma def_elem_rel : forall k, op_rel (def_elem k) (def_elem k).
Proof.
  intros k ce cs cs' HR H. unfold def_elem in *. pose proof (Rel_get ce cs k HR) as Hk.
  destruct (sget cs k) as [[y|kd c|es]|] eqn:Es; try discriminate; injection H as <-.
  - destruct (sget ce k) as [[x|kd' c'|es']|] eqn:Ee; cbn [shape] in Hk; try contradiction.
    eexists. split; [reflexivity|].
    apply Rel_sset; [exact HR|rewrite Ee; discriminate|rewrite Es; discriminate|]. cbn [shape].
    apply Forall2_app; [exact Hk|constructor; [exact Rel_nil|constructor]].
  - apply shape_none_r in Hk. rewrite Hk. eexists. split; [reflexivity|].
    apply Rel_spush; [exact HR|exact Hk|exact Es|]. cbn [shape]. constructor; [exact Rel_nil|constructor].
Qed.

Lemma keys_sremove_sub : forall (t : tree) k x, In x (List.map fst (sremove t k)) -> In x (List.map fst t).
Proof.
  induction t as [|[k0 n0] t IH]; intros k x H; cbn [sremove] in H; [exact H|].
  destruct (bytes_eqb k0 k); cbn [List.map fst] in *; [right; exact H|].
  destruct H as [H|H]; [left; exact H|right; exact (IH k x H)].
Qed.

Lemma Wf_sremove : forall t k, Wf t -> Wf (sremove t k).
Proof.
  intros t k H. apply Wf_unfold in H as [Hnd Hs]. apply Wf_unfold. split.
  - induction t as [|[k0 n0] t IH]; cbn [sremove]; [constructor|].
    cbn [List.map fst] in Hnd. inversion Hnd as [|? ? Hnot Hnd']; subst. inversion Hs; subst.
    destruct (bytes_eqb k0 k); [exact Hnd'|]. cbn [List.map fst]. constructor; [|apply IH; assumption].
    intro Hin. apply Hnot. exact (keys_sremove_sub t k k0 Hin).
  - induction t as [|[k0 n0] t IH]; cbn [sremove]; [constructor|].
    inversion Hs; subst. cbn [List.map fst] in Hnd. inversion Hnd; subst.
    destruct (bytes_eqb k0 k); [assumption|]. constructor; [assumption|apply IH; assumption].
Qed.

(* the one difference: in place (eval) against move-to-end (Spec/Defs.v) *)
Definition def_table_here' (k : bytes) (t : tree) : res tree :=
  match sget t k with
  | None => ROk (spush t k (NTab KHeader []))
  | Some (NTab KSuper c) => ROk (sset t k (NTab KHeader c))
  | Some _ => RInvalid
  end.

Lemma def_table_rel : forall k, op_rel (def_table_here' k) (def_table k).
Proof.
  intros k ce cs cs' HR H. unfold def_table, def_table_here' in *. pose proof (Rel_get ce cs k HR) as Hk.
  destruct (sget cs k) as [[y|[| |] c|es]|] eqn:Es; try discriminate; injection H as <-.
  - destruct (sget ce k) as [[x|kd' c'|es']|] eqn:Ee; cbn [shape] in Hk; try contradiction. destruct Hk as [-> [Hc Wc]].
    eexists. split; [reflexivity|]. destruct HR as [HS Ws].
    assert (Hrm : sget (sremove cs k) k = None) by (apply sget_sremove_same; exact (proj1 (proj1 (Wf_unfold cs) Ws))).
    split.
    + apply Same_intro. intro k'. rewrite sget_sset, sget_spush, Ee.
      destruct (bytes_eqb k k') eqn:E.
      * apply bytes_eqb_eq in E. subst k'. rewrite Hrm. cbn [shape]. split; [reflexivity|exact Hc].
      * rewrite (sget_sremove_other cs k k' E). pose proof (Same_get ce cs k' HS) as Hk'.
        destruct (sget cs k'); exact Hk'.
    + apply Wf_spush; [apply Wf_sremove; exact Ws|exact Hrm|exact Wc].
  - apply shape_none_r in Hk. rewrite Hk. eexists. split; [reflexivity|].
    apply Rel_spush; [exact HR|exact Hk|exact Es|]. cbn [shape]. split; [reflexivity|exact Rel_nil].
Qed.
End Eq.

(* ---- statements and documents (values are mval) ---- *)
Lemma step_rel : forall te ts cur st ts' cur', Rel mval te ts ->
  spec_step true (ts, cur) st = ROk (ts', cur') ->
  exists te', ref_step (te, cur) st = ROk (te', cur') /\ Rel mval te' ts'.
Proof.
  intros te ts cur [p|p|p v] ts' cur' HR H; cbn [spec_step ref_step] in *.
  - destruct (unsnoc p) as [[pre k]|]; [|discriminate].
    destruct (at_path pre (def_table k) ts) as [t1| |] eqn:E; cbn [rbind] in H; try discriminate. injection H as <- <-.
    change (def_table_here k) with (def_table_here' mval k).
    destruct (at_path_rel mval pre _ _ (def_table_rel mval k) te ts t1 HR E) as [te' [E' HR']].
    rewrite E'. cbn [rbind]. eauto.
  - destruct (unsnoc p) as [[pre k]|]; [|discriminate].
    destruct (at_path pre (def_elem k) ts) as [t1| |] eqn:E; cbn [rbind] in H; try discriminate. injection H as <- <-.
    destruct (at_path_rel mval pre _ _ (def_elem_rel mval k) te ts t1 HR E) as [te' [E' HR']].
    rewrite E'. cbn [rbind]. eauto.
  - destruct (at_path cur (insert_kv true p v) ts) as [t1| |] eqn:E; cbn [rbind] in H; try discriminate. injection H as <- <-.
    destruct (at_path_rel mval cur _ _ (insert_kv_rel mval p v) te ts t1 HR E) as [te' [E' HR']].
    rewrite E'. cbn [rbind]. eauto.
Qed.

Lemma fold_rel : forall l ms te ts cur ts' cur', stmts_meaning l = Some ms -> Rel mval te ts ->
  spec_fold true (ts, cur) ms = ROk (ts', cur') ->
  exists te', ref_fold (te, cur) l = Some (te', cur') /\ Same mval te' ts'.
Proof.
  induction l as [|st l IH]; intros ms te ts cur ts' cur' Hm HR H.
  - cbn [stmts_meaning] in Hm. injection Hm as <-. cbn [spec_fold] in H. injection H as <- <-.
    exists te. split; [reflexivity|exact (proj1 HR)].
  - cbn [stmts_meaning] in Hm. destruct (stmt_meaning st) as [m|] eqn:Em; [|discriminate].
    destruct (stmts_meaning l) as [ms'|] eqn:El; [|discriminate]. injection Hm as <-.
    cbn [spec_fold] in H. destruct (spec_step true (ts, cur) m) as [[ts1 cur1]| |] eqn:Es; cbn [rbind] in H; try discriminate.
    destruct (step_rel te ts cur m ts1 cur1 HR Es) as [te1 [Er HR1]].
    cbn [ref_fold]. rewrite Em, Er. exact (IH ms' te1 ts1 cur1 ts' cur' eq_refl HR1 H).
Qed.

(* every document the claims specification calls valid is valid for `eval`, and `eval`'s table has the same
   content under every key path as the specification's tree (only the order of keys may differ) *)
Theorem eval_same_as_spec : forall l tr, spec_eval l = Some tr ->
  exists t, eval l = Some (MTab (erase_tree t)) /\ Same mval t tr.
Proof.
  intros l tr H. unfold spec_eval in H. destruct (stmts_meaning l) as [ms|] eqn:Em; [|discriminate].
  unfold spec_run, run in H. destruct (spec_fold true sstate0 ms) as [[ts' cur']| |] eqn:Ef; try discriminate. injection H as <-.
  destruct (fold_rel l ms [] [] [] ts' cur' Em (Rel_nil mval) Ef) as [te' [Er HS]].
  exists te'. unfold eval. change sstate0 with (([] : stree mval), ([] : list bytes)). rewrite Er. split; [reflexivity|exact HS].
Qed.
