(* Proofs/DefsEquivWalk.v — C09: the bridge between ParseState::descend_path
   (`with_table_at`) and the spec walkers (`at_path_x`, `insert_kv`). *)
From TV Require Import Base.Prelude Model.Tree Model.Parse Model.Document Spec.Defs.
From TV Require Import Proofs.DefsEquivBase Proofs.DefsEquivSpec Proofs.DefsEquivKv.
From TV Require Import Proofs.KvFacts.
From TV Require Import Proofs.DocumentOps.

(* ---- abstraction vs association-list operations ------------------------------------------ *)
Lemma abs_get m k :
  sget (abs_items m) k = match kv_get m k with Some (_, it) => Some (abs_item it) | None => None end.
Proof.
  induction m as [|[k' it] tl IH]; cbn [abs_items map abs_kv fst snd sget kv_get]; [reflexivity|].
  destruct (bytes_eqb (k_key k') k); [reflexivity | exact IH].
Qed.

Lemma abs_set m k it : abs_items (kv_set m k it) = sset (abs_items m) k (abs_item it).
Proof.
  induction m as [|[k' it'] tl IH]; cbn [abs_items map abs_kv fst snd sset kv_set]; [reflexivity|].
  destruct (bytes_eqb (k_key k') k); cbn [map abs_kv fst snd]; [reflexivity|].
  f_equal. exact IH.
Qed.

Lemma abs_push m k it : abs_items (kv_push m k it) = spush (abs_items m) (k_key k) (abs_item it).
Proof. unfold abs_items, kv_push, spush. rewrite map_app. reflexivity. Qed.

Lemma abs_remove m k : abs_items (kv_remove m k) = sremove (abs_items m) k.
Proof.
  induction m as [|[k' it'] tl IH]; cbn [abs_items map abs_kv fst snd sremove kv_remove]; [reflexivity|].
  destruct (bytes_eqb (k_key k') k); cbn [map abs_kv fst snd]; [reflexivity|].
  f_equal. exact IH.
Qed.

Lemma abs_set_items t m : abs_tbl (t_set_items t m) = abs_items m.
Proof. rewrite abs_tbl_eq. destruct t. reflexivity. Qed.
Lemma items_set_items t m : t_items (t_set_items t m) = m.
Proof. apply DocumentOps.items_set_items. Qed.

Lemma kind_of_flags t t' :
  t_implicit t' = t_implicit t -> t_dotted t' = t_dotted t -> kind_of t' = kind_of t.
Proof. unfold kind_of. intros -> ->. reflexivity. Qed.

(* ---- mok vs association-list operations ---------------------------------------------------- *)
Lemma mok_get m k k' it : mok_items m = true -> kv_get m k = Some (k', it) -> mok_item it = true.
Proof. exact (kv_get_forallb (fun kv => mok_item (snd kv)) m k k' it). Qed.

Lemma mok_set m k it : mok_items m = true -> mok_item it = true -> mok_items (kv_set m k it) = true.
Proof. intros H Hi. apply kv_set_forallb; [exact H|]. intros; exact Hi. Qed.

Lemma mok_push m k it : mok_items m = true -> mok_item it = true -> mok_items (kv_push m k it) = true.
Proof. exact (kv_push_forallb (fun kv => mok_item (snd kv)) m k it). Qed.

Lemma mok_remove m k : mok_items m = true -> mok_items (kv_remove m k) = true.
Proof. exact (kv_remove_forallb (fun kv => mok_item (snd kv)) m k). Qed.

Lemma mok_set_items t m : mok_tbl (t_set_items t m) = mok_items m.
Proof. rewrite mok_tbl_eq. destruct t. reflexivity. Qed.

Lemma mok_aot_last ts sp last rinit :
  mok_item (IAot ts sp) = true -> rev ts = last :: rinit ->
  t_dotted last = false /\ mok_tbl last = true /\ forallb mok_elem (rev rinit) = true.
Proof.
  rewrite mok_item_aot. intros H Hr.
  apply rev_cons_eq in Hr. subst ts. rewrite forallb_app in H. apply andb_true_iff in H as [H1 H2].
  cbn [forallb] in H2. rewrite andb_true_r in H2. unfold mok_elem in H2.
  apply andb_true_iff in H2 as [H2 H3]. apply negb_true_iff in H2. auto.
Qed.

Lemma mok_aot_snoc l t sp :
  forallb mok_elem l = true -> t_dotted t = false -> mok_tbl t = true -> mok_item (IAot (l ++ [t]) sp) = true.
Proof.
  intros H1 H2 H3. rewrite mok_item_aot, forallb_app, H1. cbn [forallb]. unfold mok_elem. rewrite H2, H3. reflexivity.
Qed.

Definition empty_implicit (dotted : bool) : tbl := Tbl [] decor_default true dotted None None.

(* ---- descend_path(dotted = false) vs at_path_x: the accepting direction ------------------- *)
Definition okres {X Y} (phi : X -> Y -> Prop) (t : tbl) (r : cres (tbl * X)) (T' : stree value) (y : Y) : Prop :=
  exists t' x, r = COk (t', x) /\ abs_tbl t' = T' /\ phi x y /\ mok_tbl t' = true /\
               t_implicit t' = t_implicit t /\ t_dotted t' = t_dotted t.

Lemma wta_ok {X Y} (phi : X -> Y -> Prop) (f : tbl -> cres (tbl * X)) (g : stree value -> res (stree value * Y)) :
  (forall t0 T' y, mok_tbl t0 = true -> g (abs_tbl t0) = ROk (T', y) -> okres phi t0 (f t0) T' y) ->
  forall p t T' y, mok_tbl t = true -> at_path_x (keys p) g (abs_tbl t) = ROk (T', y) ->
                   okres phi t (with_table_at t p false f) T' y.
Proof.
  intros Hfg. induction p as [|k ptl IH]; intros t T' y Hm H.
  - cbn [keys map at_path_x with_table_at] in *. apply Hfg; assumption.
  - cbn [keys map at_path_x] in H. fold (keys ptl) in H. cbn [with_table_at].
    rewrite abs_tbl_eq, abs_get in H. rewrite mok_tbl_eq in Hm.
    destruct (kv_get (t_items t) (k_key k)) as [[k' it]|] eqn:E.
    + pose proof (mok_get _ _ _ _ Hm E) as Hit.
      destruct it as [|v|sub|ts sp].
      * discriminate.
      * discriminate.
      * cbn [abs_item] in H. cbn [mok_item] in Hit.
        destruct (at_path_x (keys ptl) g (abs_tbl sub)) as [[c1 y1]| |] eqn:E1; cbn [rbind fst snd] in H; inversion H; subst.
        destruct (IH _ _ _ Hit E1) as (sub' & x & Hr & Ha & Hp & Hm' & Hi & Hd).
        cbn [andb]. rewrite Hr. exists (t_set_items t (kv_set (t_items t) (k_key k) (ITable sub'))), x.
        split; [reflexivity|]. split.
        { rewrite abs_set_items, abs_set. cbn [abs_item]. rewrite (kind_of_flags _ _ Hi Hd), Ha. reflexivity. }
        split; [exact Hp|]. split.
        { rewrite mok_set_items. apply mok_set; [exact Hm | exact Hm']. }
        split; [apply implicit_set_items | apply dotted_set_items].
      * rewrite abs_item_aot in H. rewrite <- map_rev in H. cbn [andb].
        destruct (rev ts) as [|last rinit] eqn:Er; [discriminate|]. cbn [map] in H.
        destruct (mok_aot_last _ _ _ _ Hit Er) as (Hld & Hlm & Hrm).
        destruct (at_path_x (keys ptl) g (abs_tbl last)) as [[c1 y1]| |] eqn:E1; cbn [rbind fst snd] in H; inversion H; subst.
        destruct (IH _ _ _ Hlm E1) as (last' & x & Hr & Ha & Hp & Hm' & Hi & Hd).
        rewrite Hr. exists (t_set_items t (kv_set (t_items t) (k_key k) (IAot (rev (last' :: rinit)) sp))), x.
        split; [reflexivity|]. split.
        { rewrite abs_set_items, abs_set, abs_item_aot. cbn [rev]. rewrite map_app, map_rev. cbn [map].
          rewrite Ha. reflexivity. }
        split; [exact Hp|]. split.
        { rewrite mok_set_items. apply mok_set; [exact Hm|]. cbn [rev].
          apply mok_aot_snoc; [exact Hrm | rewrite Hd; exact Hld | exact Hm']. }
        split; [apply implicit_set_items | apply dotted_set_items].
    + destruct (at_path_x (keys ptl) g []) as [[c1 y1]| |] eqn:E1; cbn [rbind fst snd] in H; inversion H; subst.
      destruct (IH (empty_implicit false) _ _ eq_refl E1) as (sub' & x & Hr & Ha & Hp & Hm' & Hi & Hd).
      fold (empty_implicit false). rewrite Hr.
      exists (t_set_items t (kv_push (t_items t) k (ITable sub'))), x.
      split; [reflexivity|]. split.
      { rewrite abs_set_items, abs_push. cbn [abs_item]. rewrite (kind_of_flags _ _ Hi Hd), Ha. reflexivity. }
      split; [exact Hp|]. split.
      { rewrite mok_set_items. apply mok_push; [exact Hm | exact Hm']. }
      split; [apply implicit_set_items | apply dotted_set_items].
Qed.

(* ---- descend_path(dotted = false) vs at_path_x: the rejecting direction ------------------- *)
Lemma abs_aot_nonempty ts sp : swf_node (abs_item (IAot ts sp)) = true -> rev ts <> [].
Proof.
  rewrite abs_item_aot, swf_node_aot. intros H Hr.
  assert (ts = []) by (rewrite <- (rev_involutive ts), Hr; reflexivity). subst. discriminate.
Qed.

Lemma abs_aot_last_swf ts sp last rinit :
  swf_node (abs_item (IAot ts sp)) = true -> rev ts = last :: rinit -> swf_tree (abs_tbl last) = true.
Proof.
  rewrite abs_item_aot. intros H Hr.
  apply (swf_aot_last _ (abs_tbl last) (map abs_tbl rinit) H). rewrite <- map_rev, Hr. reflexivity.
Qed.

Lemma wta_inv {X Y} (f : tbl -> cres (tbl * X)) (g : stree value -> res (stree value * Y)) :
  (forall t0, mok_tbl t0 = true -> swf_tree (abs_tbl t0) = true -> g (abs_tbl t0) = RInvalid ->
              exists c, f t0 = CErr c) ->
  forall p t, mok_tbl t = true -> swf_tree (abs_tbl t) = true ->
              at_path_x (keys p) g (abs_tbl t) = RInvalid -> exists c, with_table_at t p false f = CErr c.
Proof.
  intros Hfg. induction p as [|k ptl IH]; intros t Hm Hs H.
  - cbn [keys map at_path_x with_table_at] in *. apply Hfg; assumption.
  - cbn [keys map at_path_x] in H. fold (keys ptl) in H. cbn [with_table_at].
    rewrite abs_tbl_eq in Hs. rewrite abs_tbl_eq, abs_get in H. rewrite mok_tbl_eq in Hm.
    pose proof (abs_get (t_items t) (k_key k)) as Hg.
    destruct (kv_get (t_items t) (k_key k)) as [[k' it]|] eqn:E.
    + pose proof (mok_get _ _ _ _ Hm E) as Hit. pose proof (swf_sget _ _ _ Hs Hg) as Hsw.
      destruct it as [|v|sub|ts sp].
      * discriminate.
      * eexists; reflexivity.
      * cbn [abs_item] in H, Hsw. cbn [mok_item] in Hit. rewrite swf_node_tab in Hsw. cbn [andb].
        destruct (at_path_x (keys ptl) g (abs_tbl sub)) as [[c1 y1]| |] eqn:E1; cbn [rbind] in H; try discriminate.
        destruct (IH _ Hit Hsw E1) as [c Hc]. rewrite Hc. eexists; reflexivity.
      * cbn [andb]. pose proof (abs_aot_nonempty _ _ Hsw) as Hne.
        destruct (rev ts) as [|last rinit] eqn:Er; [congruence|].
        destruct (mok_aot_last _ _ _ _ Hit Er) as (Hld & Hlm & Hrm).
        pose proof (abs_aot_last_swf _ _ _ _ Hsw Er) as Hls.
        rewrite abs_item_aot in H. rewrite <- map_rev, Er in H. cbn [map] in H.
        destruct (at_path_x (keys ptl) g (abs_tbl last)) as [[c1 y1]| |] eqn:E1; cbn [rbind] in H; try discriminate.
        destruct (IH _ Hlm Hls E1) as [c Hc]. rewrite Hc. eexists; reflexivity.
    + destruct (at_path_x (keys ptl) g []) as [[c1 y1]| |] eqn:E1; cbn [rbind] in H; try discriminate.
      destruct (IH (empty_implicit false) eq_refl eq_refl E1) as [c Hc].
      fold (empty_implicit false). rewrite Hc. eexists; reflexivity.
Qed.

(* ---- descend_path(dotted = true) + insertion vs insert_kv (code policy) ------------------- *)
Definition simres (t : tbl) (r : cres (tbl * unit)) (s : res (stree value)) : Prop :=
  match s with
  | ROk T' => exists t', r = COk (t', tt) /\ abs_tbl t' = T' /\ mok_tbl t' = true /\
                         t_implicit t' = t_implicit t /\ t_dotted t' = t_dotted t
  | RInvalid => exists c, r = CErr c
  | RUndecided => True
  end.

Lemma f_keyval_leaf k v pe t :
  mok_tbl t = true -> t_dotted t = negb pe ->
  simres t (f_keyval k (IValue v) pe t) (insert_kv false [k_key k] v (abs_tbl t)).
Proof.
  intros Hm Hd. rewrite insert_kv_leaf. unfold f_keyval. rewrite Hd.
  replace (Bool.eqb (negb pe) pe) with false by (destruct pe; reflexivity).
  rewrite abs_tbl_eq, abs_get. rewrite mok_tbl_eq in Hm.
  destruct (kv_get (t_items t) (k_key k)) as [[k' it]|]; cbn [simres].
  - eexists; reflexivity.
  - eexists. split; [reflexivity|]. split; [rewrite abs_set_items, abs_push; reflexivity|].
    split; [rewrite mok_set_items; apply mok_push; [exact Hm | reflexivity]|].
    split; [apply implicit_set_items | apply dotted_set_items].
Qed.

Lemma simres_wrap t r s (wrapm : tbl -> tbl) (wraps : stree value -> stree value) :
  forall sub,
  simres sub r s ->
  (forall sub', mok_tbl sub' = true -> t_implicit sub' = t_implicit sub -> t_dotted sub' = t_dotted sub ->
                abs_tbl (wrapm sub') = wraps (abs_tbl sub') /\ mok_tbl (wrapm sub') = true /\
                t_implicit (wrapm sub') = t_implicit t /\ t_dotted (wrapm sub') = t_dotted t) ->
  simres t (match r with COk (s', x) => COk (wrapm s', x) | CErr c => CErr c | CPanic p => CPanic p end)
         (c <~ s ;; ROk (wraps c)).
Proof.
  intros sub H Hw. destruct s as [T'| |]; cbn [simres rbind] in *.
  - destruct H as (sub' & Hr & Ha & Hm & Hi & Hd). subst r.
    destruct (Hw sub' Hm Hi Hd) as (W1 & W2 & W3 & W4).
    exists (wrapm sub'). rewrite W1, Ha. auto.
  - destruct H as [c Hr]. subst r. eexists; reflexivity.
  - exact I.
Qed.

Lemma wta_kv k v : forall path t,
  mok_tbl t = true -> swf_tree (abs_tbl t) = true ->
  (path = [] -> t_dotted t = true) ->
  simres t (with_table_at t path true (f_keyval k (IValue v) false))
         (insert_kv false (keys path ++ [k_key k]) v (abs_tbl t)).
Proof.
  induction path as [|pk ptl IH]; intros t Hm Hs Hd.
  - cbn [keys map app with_table_at]. apply f_keyval_leaf; [exact Hm | apply Hd; reflexivity].
  - cbn [keys map app]. fold (keys ptl). rewrite insert_kv_snoc. cbn [with_table_at].
    pose proof Hm as Hm0. pose proof Hs as Hs0.
    rewrite abs_tbl_eq in Hs. rewrite mok_tbl_eq in Hm.
    rewrite abs_tbl_eq at 1. rewrite abs_get.
    pose proof (abs_get (t_items t) (k_key pk)) as Hg.
    destruct (kv_get (t_items t) (k_key pk)) as [[k' it]|] eqn:E.
    + pose proof (mok_get _ _ _ _ Hm E) as Hit. pose proof (swf_sget _ _ _ Hs Hg) as Hsw.
      destruct it as [|v0|sub|ts sp].
      * discriminate.
      * cbn [abs_item simres]. eexists; reflexivity.
      * cbn [abs_item mok_item] in *. rewrite swf_node_tab in Hsw. cbn [andb].
        unfold kind_of. destruct (t_implicit sub) eqn:Ei; cbn [negb].
        -- destruct (t_dotted sub) eqn:Edt.
           ++ apply (simres_wrap t _ _ (fun s' => t_set_items t (kv_set (t_items t) (k_key pk) (ITable s')))
                                 (fun c => sset (abs_tbl t) (k_key pk) (NTab KDotted c)) sub).
              { apply IH; [exact Hit | exact Hsw | intros _; exact Edt]. }
              intros sub' M1 M2 M3. split.
              { rewrite abs_set_items, abs_set, (abs_tbl_eq t). cbn [abs_item]. unfold kind_of.
                rewrite M2, M3, Ei, Edt. reflexivity. }
              split; [rewrite mok_set_items; apply mok_set; assumption|].
              split; [apply implicit_set_items | apply dotted_set_items].
           ++ destruct ptl as [|pk2 ptl'].
              ** cbn [keys map with_table_at]. unfold f_keyval. rewrite Edt. cbn [Bool.eqb simres]. eexists; reflexivity.
              ** change (keys (pk2 :: ptl')) with (k_key pk2 :: keys ptl'). cbv iota.
                 change (k_key pk2 :: keys ptl') with (keys (pk2 :: ptl')).
                 apply (simres_wrap t _ _ (fun s' => t_set_items t (kv_set (t_items t) (k_key pk) (ITable s')))
                                    (fun c => sset (abs_tbl t) (k_key pk) (NTab KSuper c)) sub).
                 { apply IH; [exact Hit | exact Hsw | discriminate]. }
                 intros sub' M1 M2 M3. split.
                 { rewrite abs_set_items, abs_set, (abs_tbl_eq t). cbn [abs_item]. unfold kind_of.
                   rewrite M2, M3, Ei, Edt. reflexivity. }
                 split; [rewrite mok_set_items; apply mok_set; assumption|].
                 split; [apply implicit_set_items | apply dotted_set_items].
        -- cbn [simres]. eexists; reflexivity.
      * rewrite abs_item_aot. cbn [simres andb].
        destruct ptl as [|pk2 ptl']; [|eexists; reflexivity].
        pose proof (abs_aot_nonempty _ _ Hsw) as Hne.
        destruct (rev ts) as [|last rinit] eqn:Er; [congruence|].
        destruct (mok_aot_last _ _ _ _ Hit Er) as (Hld & Hlm & Hrm).
        cbn [with_table_at]. unfold f_keyval. rewrite Hld. cbn [Bool.eqb]. eexists; reflexivity.
    + fold (empty_implicit true).
      apply (simres_wrap t _ _ (fun s' => t_set_items t (kv_push (t_items t) pk (ITable s')))
                         (fun c => spush (abs_tbl t) (k_key pk) (NTab KDotted c)) (empty_implicit true)).
      { apply (IH (empty_implicit true)); reflexivity. }
      intros sub' M1 M2 M3. split.
      { rewrite abs_set_items, abs_push, (abs_tbl_eq t). cbn [abs_item]. unfold kind_of.
        rewrite M2, M3. reflexivity. }
      split; [rewrite mok_set_items; apply mok_push; assumption|].
      split; [apply implicit_set_items | apply dotted_set_items].
Qed.
