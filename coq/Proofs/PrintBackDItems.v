(* Proofs/PrintBackDItems.v — C03, class (d): a print item as it was read: where it stands in the source and
   the text it prints as. *)
From TV Require Import Base.Prelude Base.Winnow Gen.Consts Spec.Syntax.
From TV Require Import Model.Tree Model.Encode.
From TV Require Import Proofs.PrintBackBase
                       Proofs.PrintBackEnts Proofs.PrintBackHKey Proofs.PrintBackDVals Proofs.PrintBackDAll Proofs.PrintBackDKey Proofs.PrintBackIValue.
From TV Require Import Proofs.TilingNormScan Proofs.TilingNormStr Proofs.TilingCmt.
From TV Require Import Proofs.GrammarBase Proofs.GrammarValueBase.
Require Import Lia ZifyBool ZifyN ZifyNat.

(* the source position of an item: the start of the header's table span; the start of the line's last key *)
Definition ppos (x : pitem) : N :=
  match x with
  | PH (Some st) _ _ _ => st
  | PH None _ _ _ => 0%N
  | PL k _ => match k_repr k with Some (RSpanned a _) => a | _ => 0%N end
  end.

Definition sitem : Type := (pitem * bytes)%type.

Definition sitem_ok (s : bytes) (it : sitem) : Prop :=
  let '(x, txt) := it in
  match x with
  | PH st q a d =>
    exists start q0 lead trail Y,
      st = Some start /\ q = Some q0 /\ d = decor_new lead trail /\ hdr_at s start a Y
      /\ txt = raw_encode (traw s lead) [] ++ (hdr_open a ++ Y ++ hdr_close a) ++ raw_encode (traw s trail) [] ++ [x0a]
  | PL k' v =>
    exists j0 i0 ja jb po LS r,
      key_at s j0 ja jb po k' LS r
      /\ d_prefix (k_leaf k') = Some (raw_with_span (pos i0, pos j0)) /\ (pos i0 = pos j0 -> lstart s (N.to_nat (pos j0)))
      /\ (forall ks, pre_text s ks k' = pre_text s po k' -> vok s v = true -> dline s (ks ++ [k'], v) = txt)
  end.

(* the comments of an item: those of the text before its key path and of the text after it *)
Definition pre_raw (d : decor) : raw := match d_prefix d with Some r => r | None => REmpty end.
Definition suf_raw (d : decor) : raw := match d_suffix d with Some r => r | None => REmpty end.
Definition line_lead (s : bytes) (k' : key) : bytes := decor_prefix (k_leaf (tkey s k')) (fst DEFAULT_KEY_DECOR).
Definition line_rest (s : bytes) (k' : key) (v : value) : bytes :=
  decor_suffix (k_leaf (tkey s k')) (snd DEFAULT_KEY_DECOR) ++ [x3d]
  ++ encode_value (S (value_size (tvalue s v))) (tvalue s v) DEFAULT_VALUE_DECOR ++ [x0a].

(* where a value comes from: it denotes the data of a `val` of the grammar, and holds values only *)
Definition val_fact (v : value) : Prop :=
  exists t a, val_tok t a /\ absv v = den a /\ aval_ok a = true /\ vwf v = true.

Definition sitem_cj (s : bytes) (it : sitem) : Prop :=
  let '(x, txt) := it in
  match x with
  | PH st q a d =>
    exists cl ct,
      cj anyf (raw_encode (traw s (pre_raw d)) []) cl
      /\ cj anyf (raw_encode (traw s (suf_raw d)) [] ++ [x0a]) ct /\ (forall r, qstop ((raw_encode (traw s (suf_raw d)) [] ++ [x0a]) ++ r))
      /\ cj anyf txt (cl ++ ct)
  | PL k' v =>
    val_fact v /\
    (vok s v = true ->
    exists cl ct,
      cj anyf (line_lead s k') cl /\ cj anyf (line_rest s k' v) ct /\ (forall r, qstop (line_rest s k' v ++ r))
      /\ cj anyf txt (cl ++ ct))
  end.

Lemma ppos_line k v a b : k_repr k = Some (RSpanned a b) -> ppos (PL k v) = a.
Proof. intro E. cbn [ppos]. rewrite E. reflexivity. Qed.
