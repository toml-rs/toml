(* Proofs/LexEquivMlBasic.v — L1 for ml-basic-string: the line-ending backslash (trimming of all
   following whitespace and newlines), mlb-content, the loop over unescaped quote runs, the body
   and the token lemma in both directions (maximal munch: what follows is not a quotation mark). *)
From TV Require Import Base.Prelude Base.Utf8 Base.Winnow Gen.Consts Spec.Abnf Spec.Lex.
From TV Require Import Model.Trivia Model.Strings.
From TV Require Import Proofs.ConstsOk Proofs.LexEquivBase Proofs.LexEquivTrivia
  Proofs.LexEquivStrings Proofs.LexEquivMlLit.
Require Import Lia ZifyBool ZifyN ZifyNat.

(* ---- *( wschar / newline ) : ws_newline reads the maximal run ------------------------------------------------ *)
Lemma wschar_not_nl b : wschar b = true -> byte_eqb b x0a = false /\ byte_eqb b x0d = false.
Proof. cls. lia. Qed.

Lemma not_starts_cons b s : wschar b = false -> byte_eqb b x0a = false ->
  (byte_eqb b x0d = true -> stops (byte_eqb x0a) s) -> ~ starts_with_ws_or_newline (b :: s).
Proof.
  intros W N1 N2 [(c & t' & E & Hc) | (nl & t' & [-> | ->] & E)].
  - injection E as -> _. congruence.
  - injection E as -> _. discriminate.
  - injection E as -> ->. specialize (N2 eq_refl). cbn [stops] in N2. discriminate.
Qed.

Lemma starts_nl_ws_or s : starts_with_newline s -> starts_with_ws_or_newline s.
Proof. intro H. right. exact H. Qed.

Lemma newline_stops_ws nl r : newline_tok nl -> stops wschar (nl ++ r).
Proof. intros [-> | ->]; reflexivity. Qed.

Lemma ws_run_all a : all wschar a -> ws_newline_run a.
Proof.
  induction a as [|b a IH]; intro H; [apply wn_nil|]. unfold all in H. cbn [forallb] in H.
  apply andb_true_iff in H as [Hb Ha]. apply wn_ws; [exact Hb|apply IH, Ha].
Qed.

Lemma ws_run_app a b : ws_newline_run a -> ws_newline_run b -> ws_newline_run (a ++ b).
Proof.
  induction 1 as [|c t Hc _ IH|nl t Hnl _ IH]; intro Hb; [exact Hb| |].
  - cbn [app]. apply wn_ws; [exact Hc|apply IH, Hb].
  - rewrite <- app_assoc. apply wn_nl; [exact Hnl|apply IH, Hb].
Qed.

(* a run in front of r: its leading whitespace, then a run at which no whitespace follows *)
Lemma ws_run_split tl r : ws_newline_run tl -> ~ starts_with_ws_or_newline r ->
  exists a t', tl = a ++ t' /\ all wschar a /\ ws_newline_run t' /\ stops wschar (t' ++ r).
Proof.
  intros H N. induction H as [|b t Hb _ (a & t' & -> & Ha & Ht' & Hs)|nl t Hnl Ht _].
  - exists [], []. repeat split; [apply wn_nil|]. destruct r as [|c r]; [exact I|]. cbn [app stops].
    destruct (wschar c) eqn:W; [|reflexivity]. destruct N. left. exists c, r. auto.
  - exists (b :: a), t'. repeat split; [|exact Ht'|exact Hs]. unfold all in *. cbn [forallb]. rewrite Hb. exact Ha.
  - exists [], (nl ++ t). repeat split; [apply wn_nl; assumption|]. rewrite <- app_assoc. apply (newline_stops_ws nl _ Hnl).
Qed.

Definition wel : parser unit := pvoid newline <|> pvoid (take_while1 (in_class WSCHAR)).

Lemma ws_newline_unfold i : ws_newline i = pvoid (repeat0 wel) i.
Proof. reflexivity. Qed.

Lemma wel_fails i : ~ starts_with_ws_or_newline (rest i) -> fails wel i.
Proof.
  intro N. unfold wel. apply alt_fails.
  - apply pvoid_fails, newline_fails. intro H. apply N. right. exact H.
  - apply pvoid_fails, take_while1_fails. destruct (rest i) as [|b s]; [exact I|]. cbn [stops].
    rewrite WSCHAR_ok. destruct (wschar b) eqn:W; [|reflexivity]. destruct N. left. exists b, s. auto.
Qed.

Lemma wel_newline i nl r : newline_tok nl -> rest i = nl ++ r -> wel i = Ok tt (adv nl i).
Proof. intros Hnl H. unfold wel. apply alt_ok, (pvoid_ok _ _ tt), (newline_complete i nl r H Hnl). Qed.

Lemma wel_ws i b a r : rest i = (b :: a) ++ r -> all wschar (b :: a) -> stops wschar r ->
  wel i = Ok tt (adv (b :: a) i).
Proof.
  intros H Ha Hr. unfold wel. rewrite alt_fails_l.
  - apply (pvoid_ok _ _ (b :: a)). unfold take_while1. rewrite (take_while_ext _ _ _ _ _ WSCHAR_ok).
    apply (take_while_ok 1 wschar i (b :: a) r H Ha Hr). simpl; lia.
  - apply pvoid_fails, newline_fails. rewrite H. unfold all in Ha. cbn [forallb] in Ha.
    apply andb_true_iff in Ha as [Hb _]. destruct (wschar_not_nl b Hb) as [N1 N2].
    intros (nl & t' & [-> | ->] & E); injection E as -> _; discriminate.
Qed.

Lemma wel_inv i u i' : wel i = Ok u i' -> exists t, ws_newline_run t /\ splits i t i'.
Proof.
  unfold wel. intro H. apply alt_inv in H as [H | [_ H]]; apply pvoid_inv in H as (x & H).
  - apply newline_sound in H as (nl & Hnl & S). exists nl. split; [|exact S].
    rewrite <- (app_nil_r nl). apply wn_nl; [exact Hnl|apply wn_nil].
  - unfold take_while1 in H. rewrite (take_while_ext _ _ _ _ _ WSCHAR_ok) in H.
    apply take_while_inv in H as (S & Ha & _). exists x. split; [apply ws_run_all, Ha|exact S].
Qed.

Lemma wel_shrinking : shrinking wel.
Proof. apply splits_shrinking. intros i a i' H. apply wel_inv in H as (t & _ & S). eauto. Qed.

Lemma wel_fails_inv i : fails wel i -> ~ starts_with_ws_or_newline (rest i).
Proof.
  intros (e & j & F) [(b & t' & E & Hb) | (nl & t' & Hnl & E)].
  - destruct (span_while_split wschar t') as (a & r & -> & Ha & Hr & _).
    rewrite (wel_ws i b a r E) in F; [discriminate| |exact Hr]. unfold all. cbn [forallb]. rewrite Hb. exact Ha.
  - rewrite (wel_newline i nl t' Hnl E) in F. discriminate.
Qed.

Lemma ws_newline_inv i u i' : ws_newline i = Ok u i' ->
  exists tl, ws_newline_run tl /\ splits i tl i' /\ ~ starts_with_ws_or_newline (rest i').
Proof.
  rewrite ws_newline_unfold. intro H. apply pvoid_inv in H as (l & H).
  apply (repeat0_inv _ _ _ _ wel_shrinking) in H.
  induction H as [i F|i a i1 l i2 E _ _ (t2 & R2 & S2 & N)].
  - exists []. split; [apply wn_nil|]. split; [apply splits_nil|apply wel_fails_inv, F].
  - apply wel_inv in E as (t1 & R1 & S1). exists (t1 ++ t2).
    split; [apply ws_run_app; assumption|]. split; [apply (splits_trans _ _ _ _ _ S1 S2)|exact N].
Qed.

(* wel reads whitespace a whole run at a time, so the induction is on the length of what is left *)
Lemma ws_newline_runs n : forall tl, length tl < n -> ws_newline_run tl -> forall i r,
  rest i = tl ++ r -> ~ starts_with_ws_or_newline r -> exists l, runs wel i l (adv tl i).
Proof.
  induction n as [|n IH]; intros tl Hn Hrun i r H N; [lia|]. destruct Hrun as [|b t Hb Ht|nl t Hnl Ht].
  - exists []. rewrite adv_nil. apply runs_nil, wel_fails. rewrite H. exact N.
  - destruct (ws_run_split t r Ht N) as (a & t' & -> & Ha & Ht' & Hs).
    change (b :: a ++ t') with ((b :: a) ++ t') in *. rewrite <- app_assoc in H.
    assert (Hlt : length t' < n) by (rewrite app_length in Hn; simpl in Hn; lia).
    destruct (IH t' Hlt Ht' _ r (rest_adv _ _ _ H) N) as (l & Rl).
    exists (tt :: l). apply (runs_step _ i (b :: a) _ tt l t' H); [discriminate| |exact Rl].
    apply (wel_ws i b a _ H); [|exact Hs]. unfold all in *. cbn [forallb]. rewrite Hb. exact Ha.
  - rewrite <- app_assoc in H.
    assert (Hlt : length t < n) by (rewrite app_length in Hn; destruct Hnl as [-> | ->]; simpl in Hn; lia).
    destruct (IH t Hlt Ht _ r (rest_adv _ _ _ H) N) as (l & Rl).
    exists (tt :: l). apply (runs_step _ i nl _ tt l t H); [destruct Hnl as [-> | ->]; discriminate| |exact Rl].
    apply (wel_newline i nl _ Hnl H).
Qed.

Lemma ws_newline_exact i tl r : rest i = tl ++ r -> ws_newline_run tl -> ~ starts_with_ws_or_newline r ->
  ws_newline i = Ok tt (adv tl i).
Proof.
  intros H Hr N. destruct (ws_newline_runs _ tl (Nat.lt_succ_diag_r _) Hr i r H N) as (l & R).
  rewrite ws_newline_unfold. apply (pvoid_ok _ _ l), repeat0_runs, R.
Qed.

(* ---- one line-ending backslash:  escape ws newline *( wschar / newline ) ------------------------------------------------ *)
Definition mel : parser unit := byte_ ESCAPE ;;; ws ;;; ws_newlines.

Lemma mlb_escaped_nl_unfold i : mlb_escaped_nl i = pvoid (repeat1 mel) i.
Proof. reflexivity. Qed.

Lemma mel_ok i e r : mlb_escaped_nl_tok e -> rest i = e ++ r -> ~ starts_with_ws_or_newline r ->
  mel i = Ok tt (adv e i).
Proof.
  intros (w & nl & tl & -> & Hw & Hnl & Htl) H N. unfold mel, ESCAPE, ws_newlines.
  rewrite <- !app_assoc in H. cbn [app] in H.
  rewrite (bind_ok _ _ _ _ _ (byte_ok x5c i _ H)). pose proof (rest_adv [x5c] _ _ H) as R1.
  rewrite (bind_ok _ _ _ _ _ (ws_complete _ w _ R1 Hw (newline_stops_ws nl _ Hnl))).
  pose proof (rest_adv w _ _ R1) as R2.
  rewrite (bind_ok _ _ _ _ _ (newline_complete _ nl _ R2 Hnl)). pose proof (rest_adv nl _ _ R2) as R3.
  rewrite (ws_newline_exact _ tl r R3 Htl N). rewrite !adv_adv. reflexivity.
Qed.

Lemma mel_inv i u i' : mel i = Ok u i' ->
  exists e, mlb_escaped_nl_tok e /\ splits i e i' /\ ~ starts_with_ws_or_newline (rest i').
Proof.
  unfold mel, ESCAPE, ws_newlines. intro H. apply bind_inv in H as (x & i1 & H1 & H). apply byte_inv in H1 as [_ S1].
  apply bind_inv in H as (w & i2 & H2 & H). apply ws_sound in H2 as (Hw & S2 & _).
  apply bind_inv in H as (y & i3 & H3 & H). apply newline_sound in H3 as (nl & Hnl & S3).
  apply ws_newline_inv in H as (tl & Htl & S4 & N).
  exists ([x5c] ++ w ++ nl ++ tl). split; [exists w, nl, tl; auto|]. split; [|exact N].
  apply (splits_trans _ _ _ _ _ S1 (splits_trans _ _ _ _ _ S2 (splits_trans _ _ _ _ _ S3 S4))).
Qed.

Lemma mel_shrinking : shrinking mel.
Proof. apply splits_shrinking. intros i a i' H. apply mel_inv in H as (e & _ & S & _). eauto. Qed.

(* the text starts with  escape ws newline *)
Definition starts_escaped_nl (s : bytes) : Prop :=
  exists w nl s', s = [x5c] ++ w ++ nl ++ s' /\ ws_tok w /\ newline_tok nl.

Lemma mel_fails i : ~ starts_escaped_nl (rest i) -> fails mel i.
Proof.
  intro N. unfold mel, ESCAPE, ws_newlines. destruct (rest i) as [|b s] eqn:E.
  { apply bind_fails, byte_fails. rewrite E. exact I. }
  destruct (byte_eqb x5c b) eqn:B; [|apply bind_fails, byte_fails; rewrite E; exact B].
  apply byte_eqb_eq in B. subst b. unfold fails.
  rewrite (bind_ok _ _ _ _ _ (byte_ok x5c i s E)). pose proof (rest_adv [x5c] _ _ E) as R1.
  destruct (ws_spec (adv [x5c] i)) as (w & Pw & Hw & Ew & _). rewrite (bind_ok _ _ _ _ _ Pw). rewrite R1 in Ew.
  apply bind_fails. destruct (newline_cases (adv w (adv [x5c] i))) as [(nl & r & Hnl & Enl & _) | [_ F]]; [|exact F].
  destruct N. exists w, nl, r. split; [|auto]. rewrite Ew, Enl. reflexivity.
Qed.

(* 1*( escape ws newline *( wschar / newline ) ), each one maximal *)
Inductive trims : bytes -> Prop :=
| trims_one e : mlb_escaped_nl_tok e -> trims e
| trims_more e es : mlb_escaped_nl_tok e -> trims es -> trims (e ++ es).

Lemma escaped_nl_head e : mlb_escaped_nl_tok e -> exists e', e = x5c :: e'.
Proof. intros (w & nl & tl & -> & _). cbn [app]. eauto. Qed.

Lemma escaped_nl_nonempty e : mlb_escaped_nl_tok e -> e <> [].
Proof. intro He. destruct (escaped_nl_head e He) as (e' & ->). discriminate. Qed.

Lemma trims_head es : trims es -> exists es', es = x5c :: es'.
Proof.
  intros [e He|e es' He _]; destruct (escaped_nl_head e He) as (e' & ->); cbn [app]; eauto.
Qed.

Lemma backslash_not_starts s : ~ starts_with_ws_or_newline (x5c :: s).
Proof. apply not_starts_cons; try reflexivity. intro; discriminate. Qed.

Lemma runs_trims es : trims es -> forall i r, rest i = es ++ r ->
  ~ starts_with_ws_or_newline r -> ~ starts_escaped_nl r ->
  exists a l, runs mel i (a :: l) (adv es i).
Proof.
  induction 1 as [e He|e es He Hes IH]; intros i r H N1 N2.
  - exists tt, []. rewrite <- (app_nil_r e).
    apply (runs_step _ i e r tt [] [] H (escaped_nl_nonempty e He) (mel_ok i e r He H N1)).
    rewrite adv_nil. apply runs_nil, mel_fails. rewrite (rest_adv _ _ _ H). exact N2.
  - rewrite <- app_assoc in H.
    destruct (IH _ r (rest_adv _ _ _ H) N1 N2) as (a & l & Rl). exists tt, (a :: l).
    apply (runs_step _ i e _ tt (a :: l) es H (escaped_nl_nonempty e He)); [|exact Rl].
    apply (mel_ok i e _ He H). destruct (trims_head es Hes) as (es' & ->). apply backslash_not_starts.
Qed.

Lemma repeat1_of_runs {A} (p : parser A) i a l i' : runs p i (a :: l) i' -> repeat1 p i = Ok (a :: l) i'.
Proof. intro R. inversion R as [|? ? i1 ? ? E _ R']; subst. apply (repeat1_runs p i a i1 l i' E R'). Qed.

Lemma mlb_escaped_nl_ok i es r : trims es -> rest i = es ++ r ->
  ~ starts_with_ws_or_newline r -> ~ starts_escaped_nl r -> mlb_escaped_nl i = Ok tt (adv es i).
Proof.
  intros Ht H N1 N2. rewrite mlb_escaped_nl_unfold. destruct (runs_trims es Ht i r H N1 N2) as (a & l & R).
  apply (pvoid_ok _ _ (a :: l)), repeat1_of_runs. exact R.
Qed.

Lemma runs_mel_sound i l i' : runs mel i l i' -> l <> [] ->
  exists es, trims es /\ splits i es i' /\ ~ starts_with_ws_or_newline (rest i').
Proof.
  induction 1 as [i F|i a i1 l i2 E _ R IH]; intro Hne; [congruence|].
  apply mel_inv in E as (e & He & S1 & N1). destruct l as [|a' l'].
  - inversion R; subst. exists e. split; [apply trims_one; exact He|auto].
  - destruct IH as (es & Hes & S2 & N2); [discriminate|].
    exists (e ++ es). split; [apply trims_more; assumption|]. split; [apply (splits_trans _ _ _ _ _ S1 S2)|exact N2].
Qed.

Lemma mlb_escaped_nl_inv i u i' : mlb_escaped_nl i = Ok u i' ->
  exists es, trims es /\ splits i es i' /\ ~ starts_with_ws_or_newline (rest i').
Proof.
  rewrite mlb_escaped_nl_unfold. intro H. apply pvoid_inv in H as (l & H).
  apply (repeat1_inv _ _ _ _ mel_shrinking) in H as (a & i1 & l' & -> & E & R).
  apply (runs_mel_sound i (a :: l') i'); [|discriminate].
  eapply runs_cons; [exact E| |exact R]. apply mel_inv in E as (e & He & S & _).
  apply splits_len in S. destruct (escaped_nl_head e He) as (e' & ->). simpl in S. lia.
Qed.

Lemma mlb_escaped_nl_fails i : ~ starts_escaped_nl (rest i) -> fails mlb_escaped_nl i.
Proof.
  intro N. unfold fails. rewrite mlb_escaped_nl_unfold. apply pvoid_fails, repeat1_fails, mel_fails. exact N.
Qed.

(* ---- mlb-content = mlb-char / newline / mlb-escaped-nl ------------------------------------------------------------------- *)
Definition mlb_chunk : parser bytes := class_chunk MLB_UNESCAPED.

Lemma mlb_content_unfold i :
  mlb_content i = (mlb_chunk <|> pvalue [] mlb_escaped_nl <|> escaped <|> pvalue [x0a] newline) i.
Proof. reflexivity. Qed.

(* grammar side: building *mlb-content from the left *)
Lemma mlc_run a t2 w : all mlb_unescaped a -> mlb_contents t2 w -> mlb_contents (a ++ t2) (a ++ w).
Proof.
  induction a as [|b a IH]; intros Ha H; [exact H|]. unfold all in Ha. cbn [forallb] in Ha.
  apply andb_true_iff in Ha as [Hb Ha]. change ((b :: a) ++ t2) with ([b] ++ a ++ t2).
  change ((b :: a) ++ w) with ([b] ++ a ++ w). apply mlc_char; [left; exists b; auto|apply IH; assumption].
Qed.

Lemma mlc_trims es t2 w : trims es -> ~ starts_with_ws_or_newline t2 -> mlb_contents t2 w ->
  mlb_contents (es ++ t2) w.
Proof.
  induction 1 as [e He|e es He Hes IH]; intros N H.
  - apply mlc_escaped_nl; assumption.
  - rewrite <- app_assoc. apply mlc_escaped_nl; [exact He| |apply IH; assumption].
    destruct (trims_head es Hes) as (es' & ->). apply backslash_not_starts.
Qed.

Lemma starts_app t2 r2 : starts_with_ws_or_newline t2 -> starts_with_ws_or_newline (t2 ++ r2).
Proof.
  intros [(b & t' & -> & Hb) | (nl & t' & Hnl & ->)].
  - left. exists b, (t' ++ r2). auto.
  - right. exists nl, (t' ++ r2). split; [exact Hnl|]. rewrite app_assoc. reflexivity.
Qed.

Lemma escaped_nl_ascii e : mlb_escaped_nl_tok e -> forallb ascii e = true.
Proof.
  intros (w & nl & tl & -> & Hw & Hnl & Htl). rewrite !forallb_app.
  rewrite (forallb_impl wschar ascii w wschar_ascii Hw), (newline_tok_ascii nl Hnl). cbn [forallb andb].
  rewrite Bool.andb_true_r. change (ascii x5c) with true. cbn [andb].
  induction Htl as [|b t Hb _ IH|nl' t Hnl' _ IH]; [reflexivity| |].
  - cbn [forallb]. rewrite (wschar_ascii b Hb), IH. reflexivity.
  - rewrite forallb_app, (newline_tok_ascii nl' Hnl'), IH. reflexivity.
Qed.

Lemma trims_ascii es : trims es -> forallb ascii es = true.
Proof.
  induction 1 as [e He|e es He _ IH]; [apply escaped_nl_ascii; exact He|].
  rewrite forallb_app, (escaped_nl_ascii e He), IH. reflexivity.
Qed.

(* what one successful mlb_content call contributes, given what the rest of the group turns out to be *)
Definition prepend_ok (t c : bytes) (i' : input) : Prop :=
  forall t2 w, mlb_contents t2 w -> (exists r2, rest i' = t2 ++ r2) -> mlb_contents (t ++ t2) (c ++ w).

Lemma mlb_content_inv i c i' : mlb_content i = Ok c i' ->
  exists t, splits i t i' /\ utf8_valid_b t = true /\ t <> [] /\ prepend_ok t c i'.
Proof.
  rewrite mlb_content_unfold. intro H. apply alt_inv in H as [H | [_ H]].
  { apply (class_chunk_inv _ _ MLB_UNESCAPED_ok) in H as (S & Hne & Ha & _ & V). exists c. repeat (split; [assumption|]).
    intros t2 w H2 _. apply mlc_run; assumption. }
  apply alt_inv in H as [H | [_ H]].
  { apply pvalue_inv in H as (-> & u & H). apply mlb_escaped_nl_inv in H as (es & Hes & S & N).
    exists es. split; [exact S|]. split; [apply utf8_ascii, trims_ascii; exact Hes|].
    split; [destruct (trims_head es Hes) as (es' & ->); discriminate|].
    intros t2 w H2 (r2 & E). cbn [app]. apply mlc_trims; [exact Hes| |exact H2].
    intro Hs. apply N. rewrite E. apply starts_app. exact Hs. }
  apply alt_inv in H as [H | [_ H]].
  { apply escaped_sound in H as (e & He & S). destruct (escaped_ascii e c He) as (Ae & t & Ee).
    exists e. split; [exact S|]. split; [apply utf8_ascii; exact Ae|]. split; [rewrite Ee; discriminate|].
    intros t2 w H2 _. apply mlc_char; [right; exact He|exact H2]. }
  apply pvalue_inv in H as (-> & u & H). apply newline_sound in H as (nl & Hnl & S).
  exists nl. split; [exact S|]. split; [apply utf8_ascii, newline_tok_ascii; exact Hnl|].
  split; [destruct Hnl as [-> | ->]; discriminate|].
  intros t2 w H2 _. apply mlc_newline; [split; [exact Hnl|reflexivity]|exact H2].
Qed.

Lemma mlb_content_shrinking : shrinking mlb_content.
Proof. apply splits_shrinking. intros i a i' H. apply mlb_content_inv in H as (t & S & _). eauto. Qed.

Lemma runs_mlb_sound i l i' : runs mlb_content i l i' ->
  exists t, splits i t i' /\ utf8_valid_b t = true /\ mlb_contents t (concat l) /\ (l <> [] -> t <> []).
Proof.
  induction 1 as [i F|i a i1 l i2 E _ _ (t2 & S2 & V2 & H2 & _)].
  - exists []. split; [apply splits_nil|]. split; [reflexivity|]. split; [apply mlc_nil|congruence].
  - apply mlb_content_inv in E as (t1 & S1 & V1 & Hne & P). exists (t1 ++ t2).
    split; [apply (splits_trans _ _ _ _ _ S1 S2)|]. split; [apply utf8_join; assumption|].
    split; [cbn [concat]; apply P; [exact H2|exists (rest i2); apply S2]|].
    intros _. destruct t1; [congruence|discriminate].
Qed.

(* ---- completeness for a group of contents: the parser's view -------------------------------------------------------------------- *)
(* the text does not start with a line-ending backslash: empty, or not a backslash, or an escape *)
Definition no_trim_head (t : bytes) : Prop :=
  t = [] \/ (exists b t', t = b :: t' /\ byte_eqb x5c b = false) \/ (exists e s t', escaped_tok e s /\ t = e ++ t').

Inductive mchunked : bytes -> bytes -> Prop :=
| mch_nil : mchunked [] []
| mch_run a t v : a <> [] -> all mlb_unescaped a -> stops mlb_unescaped t -> mchunked t v ->
    mchunked (a ++ t) (a ++ v)
| mch_esc e s t v : escaped_tok e s -> mchunked t v -> mchunked (e ++ t) (s ++ v)
| mch_nl nl t v : newline_tok nl -> mchunked t v -> mchunked (nl ++ t) (x0a :: v)
| mch_trim es t v : trims es -> ~ starts_with_ws_or_newline t -> no_trim_head t -> mchunked t v ->
    mchunked (es ++ t) v.

Lemma mlb_unescaped_not_special b : mlb_unescaped b = true ->
  byte_eqb x5c b = false /\ byte_eqb x22 b = false /\ byte_eqb b x0a = false /\ byte_eqb b x0d = false.
Proof. cls. lia. Qed.

Lemma mchunked_stops t v : mchunked t v -> (forall a t' , t = a ++ t' -> a <> [] -> all mlb_unescaped a -> False) \/ True.
Proof. auto. Qed.

Lemma mchunked_cons b t v : mlb_unescaped b = true -> mchunked t v -> mchunked (b :: t) (b :: v).
Proof.
  intros Hb H. assert (A1 : all mlb_unescaped [b]) by (unfold all; cbn [forallb]; rewrite Hb; reflexivity).
  destruct H as [|a t v Hne Ha Hs H|e s t v He H|nl t v Hnl H|es t v Hes N1 N2 H].
  - apply (mch_run [b] [] []); [discriminate|exact A1|exact I|apply mch_nil].
  - apply (mch_run (b :: a) t v); [discriminate| |exact Hs|exact H].
    unfold all in *. cbn [forallb]. rewrite Hb. exact Ha.
  - apply (mch_run [b] (e ++ t) (s ++ v)); [discriminate|exact A1| |apply mch_esc; assumption].
    destruct (escaped_ascii e s He) as (_ & t' & ->). reflexivity.
  - apply (mch_run [b] (nl ++ t) (x0a :: v)); [discriminate|exact A1| |apply mch_nl; assumption].
    destruct Hnl as [-> | ->]; reflexivity.
  - apply (mch_run [b] (es ++ t) v); [discriminate|exact A1| |apply mch_trim; assumption].
    destruct (trims_head es Hes) as (es' & ->). reflexivity.
Qed.

Lemma contents_mchunked t v : mlb_contents t v -> mchunked t v.
Proof.
  induction 1 as [|c v t w [(b & Hb & -> & ->) | He] _ IH|c v t w [Hnl ->] _ IH|e t w He N _ IH].
  - apply mch_nil.
  - apply mchunked_cons; assumption.
  - apply mch_esc; assumption.
  - apply mch_nl; assumption.
  - destruct IH as [|a t v Hne Ha Hs H|e' s t v He' H|nl t v Hnl H|es t v Hes N1 N2 H].
    + apply (mch_trim e [] []); [apply trims_one; exact He|exact N|left; reflexivity|apply mch_nil].
    + apply (mch_trim e (a ++ t) (a ++ v)); [apply trims_one; exact He|exact N| |apply mch_run; assumption].
      right; left. destruct a as [|b a']; [congruence|]. exists b, (a' ++ t). split; [reflexivity|].
      unfold all in Ha. cbn [forallb] in Ha. apply andb_true_iff in Ha as [Hb _].
      apply (mlb_unescaped_not_special b Hb).
    + apply (mch_trim e (e' ++ t) (s ++ v)); [apply trims_one; exact He|exact N| |apply mch_esc; assumption].
      right; right. eauto.
    + apply (mch_trim e (nl ++ t) (x0a :: v)); [apply trims_one; exact He|exact N| |apply mch_nl; assumption].
      right; left. destruct Hnl as [-> | ->]; cbn [app]; eauto.
    + rewrite app_assoc. apply mch_trim; [apply trims_more; assumption|exact N1|exact N2|exact H].
Qed.

Lemma not_starts_app_quote t s : ~ starts_with_ws_or_newline t -> ~ starts_with_ws_or_newline (t ++ x22 :: s).
Proof.
  intros N. destruct t as [|b t']; [apply not_starts_cons; try reflexivity; intro; discriminate|].
  intros [(c & u & E & Hc) | (nl & u & [-> | ->] & E)]; cbn [app] in E.
  - injection E as <- _. apply N. left. exists b, t'. auto.
  - injection E as -> _. apply N. right. exists [x0a], t'. split; [left; reflexivity|reflexivity].
  - injection E as -> E. destruct t' as [|c t'']; cbn [app] in E; [discriminate|]. injection E as -> _.
    apply N. right. exists [x0d; x0a], t''. split; [right; reflexivity|reflexivity].
Qed.

Lemma escape_char_not_ws b : escape_simple b <> None \/ escape_hex b <> None ->
  wschar b = false /\ byte_eqb b x0a = false /\ byte_eqb b x0d = false.
Proof.
  intros [H | H].
  - destruct (escape_simple b) as [n|] eqn:E; [apply (escape_simple_facts b n E)|congruence].
  - destruct (escape_hex b) as [k|] eqn:E; [apply (escape_hex_facts b k E)|congruence].
Qed.

Lemma escaped_second e s : escaped_tok e s -> exists b t, e = x5c :: b :: t /\
  wschar b = false /\ byte_eqb b x0a = false /\ byte_eqb b x0d = false.
Proof.
  intros [b n Hb | b k h Hb Hl Hh Hsc].
  - exists b, []. split; [reflexivity|]. apply escape_char_not_ws. left. congruence.
  - exists b, h. split; [reflexivity|]. apply escape_char_not_ws. right. congruence.
Qed.

Lemma no_trim_head_quote t s : no_trim_head t -> ~ starts_escaped_nl (t ++ x22 :: s).
Proof.
  intros [-> | [(b & t' & -> & Hb) | (e & s0 & t' & He & ->)]] (w & nl & s' & E & Hw & Hnl); cbn [app] in E.
  - discriminate.
  - injection E as -> _. discriminate.
  - destruct (escaped_second e s0 He) as (b & t & -> & W & N1 & N2). cbn [app] in E. injection E as E.
    destruct w as [|c w']; cbn [app] in E.
    + destruct Hnl as [-> | ->]; cbn [app] in E; injection E as -> _; discriminate.
    + injection E as -> _. unfold ws_tok, all in Hw. cbn [forallb] in Hw. apply andb_true_iff in Hw as [Hc _]. congruence.
Qed.

Lemma mlb_content_fails_quote i s : rest i = x22 :: s -> fails mlb_content i.
Proof.
  intro H. unfold fails. rewrite mlb_content_unfold. apply alt_fails; [apply (class_chunk_fails _ _ MLB_UNESCAPED_ok); rewrite H; reflexivity|].
  apply alt_fails.
  { apply pvalue_fails, mlb_escaped_nl_fails. rewrite H. intros (w & nl & s' & E & _). discriminate. }
  apply alt_fails; [apply escaped_fails; rewrite H; reflexivity|].
  apply pvalue_fails, newline_fails. rewrite H. intros (nl & t' & [-> | ->] & E); discriminate.
Qed.

Lemma mlb_unescaped_nonascii b : mlb_unescaped b = false -> ascii b = true.
Proof. apply basic_unescaped_nonascii. Qed.

Lemma adv_shorter i t r : rest i = t ++ r -> t <> [] -> length (rest (adv t i)) < length (rest i).
Proof. intros H Hne. rewrite (rest_adv t r i H), H, app_length. destruct t; [congruence|simpl; lia]. Qed.

Lemma runs_mlb_complete t v : mchunked t v -> forall i s,
  utf8_valid_b t = true -> rest i = t ++ x22 :: s ->
  exists l, runs mlb_content i l (adv t i) /\ concat l = v.
Proof.
  induction 1 as [|a t v Hne Ha Hs _ IH|e s0 t v He _ IH|nl t v Hnl _ IH|es t v Hes N1 N2 _ IH]; intros i s V H.
  - exists []. rewrite adv_nil. split; [|reflexivity]. apply runs_nil. apply (mlb_content_fails_quote i s H).
  - rewrite <- app_assoc in H.
    destruct (utf8_cut a t (stops_ascii_head _ _ mlb_unescaped_nonascii Hs) V) as [Va Vt].
    assert (E : mlb_content i = Ok a (adv a i)).
    { rewrite mlb_content_unfold. apply alt_ok.
      apply (class_chunk_ok _ _ MLB_UNESCAPED_ok i a _ H Hne Ha); [|exact Va]. apply stops_app_quote; [reflexivity|exact Hs]. }
    destruct (IH (adv a i) s Vt (rest_adv _ _ _ H)) as (l & Rl & El).
    exists (a :: l). split; [|cbn [concat]; rewrite El; reflexivity].
    apply (runs_step _ i a _ a l t H Hne E Rl).
  - rewrite <- app_assoc in H. destruct (escaped_ascii e s0 He) as (Ae & t' & Ee).
    rewrite (utf8_app_ascii e t Ae) in V.
    assert (E : mlb_content i = Ok s0 (adv e i)).
    { rewrite mlb_content_unfold. rewrite alt_fails_l by (apply (class_chunk_fails _ _ MLB_UNESCAPED_ok); rewrite H, Ee; reflexivity).
      rewrite alt_fails_l.
      - apply alt_ok. apply (escaped_complete i e s0 _ He H).
      - apply pvalue_fails, mlb_escaped_nl_fails. rewrite H, app_assoc.
        apply (no_trim_head_quote (e ++ t) s). right; right. eauto. }
    destruct (IH (adv e i) s V (rest_adv _ _ _ H)) as (l & Rl & El).
    exists (s0 :: l). split; [|cbn [concat]; rewrite El; reflexivity].
    apply (runs_step _ i e _ s0 l t H); [rewrite Ee; discriminate|exact E|exact Rl].
  - rewrite <- app_assoc in H. rewrite (utf8_app_ascii nl t (newline_tok_ascii nl Hnl)) in V.
    assert (Hh : exists b u, nl = b :: u /\ mlb_unescaped b = false /\ byte_eqb x5c b = false).
    { destruct Hnl as [-> | ->]; eauto. }
    destruct Hh as (b & u & Enl & Hb1 & Hb2).
    assert (E : mlb_content i = Ok [x0a] (adv nl i)).
    { rewrite mlb_content_unfold. rewrite alt_fails_l by (apply (class_chunk_fails _ _ MLB_UNESCAPED_ok); rewrite H, Enl; exact Hb1).
      rewrite alt_fails_l.
      - rewrite alt_fails_l by (apply escaped_fails; rewrite H, Enl; exact Hb2).
        apply (pvalue_ok _ _ _ tt). apply (newline_complete i nl _ H Hnl).
      - apply pvalue_fails, mlb_escaped_nl_fails. rewrite H, Enl. intros (w & nl' & s' & E & _).
        cbn [app] in E. injection E as -> _. discriminate. }
    destruct (IH (adv nl i) s V (rest_adv _ _ _ H)) as (l & Rl & El).
    exists ([x0a] :: l). split; [|cbn [concat app]; rewrite El; reflexivity].
    apply (runs_step _ i nl _ [x0a] l t H); [rewrite Enl; discriminate|exact E|exact Rl].
  - rewrite <- app_assoc in H. rewrite (utf8_app_ascii es t (trims_ascii es Hes)) in V.
    destruct (trims_head es Hes) as (es' & Ees).
    assert (E : mlb_content i = Ok [] (adv es i)).
    { rewrite mlb_content_unfold. rewrite alt_fails_l by (apply (class_chunk_fails _ _ MLB_UNESCAPED_ok); rewrite H, Ees; reflexivity).
      apply alt_ok. apply (pvalue_ok _ _ _ tt).
      apply (mlb_escaped_nl_ok i es _ Hes H); [apply not_starts_app_quote; exact N1|apply no_trim_head_quote; exact N2]. }
    destruct (IH (adv es i) s V (rest_adv _ _ _ H)) as (l & Rl & El).
    exists ([] :: l). split; [|cbn [concat app]; exact El].
    apply (runs_step _ i es _ [] l t H); [rewrite Ees; discriminate|exact E|exact Rl].
Qed.

(* ---- the loop over unescaped quote runs:  *( mlb-quotes 1*mlb-content ) -------------------------------------------------------- *)
Lemma mlb_quote_loop_S f acc i :
  mlb_quote_loop (S f) acc i =
  match opt (quotes2 x22 (not_q x22)) i with
  | Ok (Some qi) i1 =>
    match opt mlb_content i1 with
    | Ok (Some ci) i2 =>
      match chunks mlb_content i2 with
      | Ok more i3 => mlb_quote_loop f (acc ++ qi ++ ci ++ more) i3
      | Bt e i' => Bt e i'
      | Cut e i' => Cut e i'
      | Panic s => Panic s
      end
    | Ok None i2 => Ok acc i2
    | Bt e i' => Bt e i'
    | Cut e i' => Cut e i'
    | Panic s => Panic s
    end
  | Ok None i1 => Ok acc i1
  | Bt e i' => Bt e i'
  | Cut e i' => Cut e i'
  | Panic s => Panic s
  end.
Proof. reflexivity. Qed.

Lemma mlb_quotes_cases q v : mlb_quotes q v -> (q = [x22] \/ q = [x22; x22]) /\ v = q.
Proof. apply quotes_of_cases. Qed.

Lemma maybe_mlb_quotes_cases t v : maybe mlb_quotes t v -> (t = [] \/ t = [x22] \/ t = [x22; x22]) /\ v = t.
Proof. intro C. apply (maybe_quotes_of_cases x22 t v C). Qed.

Lemma mlb_contents_head c vc : mlb_contents c vc -> c = [] \/ exists b c', c = b :: c' /\ byte_eqb x22 b = false.
Proof.
  intros [|c0 v0 t w [(b & Hb & -> & ->) | He] _|c0 v0 t w [[-> | ->] _] _|e t w He _ _]; [auto| | | | |]; right.
  - exists b, t. split; [reflexivity|apply (mlb_unescaped_not_special b Hb)].
  - destruct (escaped_ascii c0 v0 He) as (_ & t' & ->). exists x5c, (t' ++ t). auto.
  - exists x0a, t. auto.
  - exists x0d, (x0a :: t). auto.
  - destruct (escaped_nl_head e He) as (e' & ->). exists x5c, (e' ++ t). auto.
Qed.

Lemma contents1_head c vc : mlb_contents1 c vc -> exists b c', c = b :: c' /\ byte_eqb x22 b = false.
Proof. intros [Hne H]. destruct (mlb_contents_head c vc H) as [-> | E]; [congruence|exact E]. Qed.

Definition qgroup : lang := cat mlb_quotes mlb_contents1.

Lemma star_qgroup_ascii_head t w s : star qgroup t w -> ascii_head s -> ascii_head (t ++ s).
Proof.
  intros [|ta va tb vb (q & vq & c & vc & -> & -> & Hq & _) _] Hs; [exact Hs|].
  apply mlb_quotes_cases in Hq as [[-> | ->] _]; reflexivity.
Qed.

Lemma maybe_mlb_quotes_ascii t v : maybe mlb_quotes t v -> forallb ascii t = true.
Proof. intro C. apply maybe_mlb_quotes_cases in C as [[-> | [-> | ->]] _]; reflexivity. Qed.

Lemma runs_nil_eq {A} (p : parser A) i i' : runs p i [] i' -> i' = i.
Proof. intro R. inversion R. reflexivity. Qed.

Lemma runs_nil_adv {A} (p : parser A) i c i' : runs p i [] i' -> i' = adv c i -> c = [].
Proof.
  intros R E. apply runs_nil_eq in R. rewrite R in E. apply (f_equal pos) in E. rewrite pos_adv in E.
  destruct c; [reflexivity|simpl in E; lia].
Qed.

Lemma quote_loop_complete t w : star qgroup t w -> forall fuel acc i s,
  utf8_valid_b t = true -> rest i = t ++ x22 :: x22 :: x22 :: s -> length (rest i) < fuel ->
  mlb_quote_loop fuel acc i = Ok (acc ++ w) (adv t i).
Proof.
  induction 1 as [|t1 v1 t2 v2 (q & vq & c & vc & -> & -> & Hq & Hc) St IH]; intros fuel acc i s V H Hf;
    (destruct fuel as [|f]; [lia|]); rewrite mlb_quote_loop_S.
  - rewrite (opt_fails _ _ (quotes2_not_q_fails x22 i s H)). rewrite adv_nil, app_nil_r. reflexivity.
  - apply mlb_quotes_cases in Hq as [Hq ->].
    destruct (contents1_head c vc Hc) as (b & c' & Ec & Nb). destruct Hc as [Hne Hc].
    destruct (star_quoted_head x22 _ t2 v2 (x22 :: x22 :: s) St) as (s' & Es').
    rewrite <- !app_assoc in H. rewrite Es' in H.
    assert (Hsh : length (rest (adv c (adv q i))) < length (rest i)).
    { rewrite adv_adv. apply (adv_shorter i (q ++ c) (x22 :: s')); [rewrite <- app_assoc; exact H|].
      destruct Hq as [-> | ->]; discriminate. }
    (* well-formedness of the pieces *)
    assert (Aq : forallb ascii q = true) by (destruct Hq as [-> | ->]; reflexivity).
    rewrite <- app_assoc in V. rewrite (utf8_app_ascii q _ Aq) in V.
    pose proof (star_qgroup_ascii_head t2 v2 [] St I) as Ah. rewrite app_nil_r in Ah.
    destruct (utf8_cut c t2 Ah V) as [Vc V2].
    (* the quotes *)
    assert (H' : rest i = q ++ b :: (c' ++ x22 :: s')) by (rewrite H, Ec; reflexivity).
    rewrite (opt_ok _ _ _ _ (quotes2_not_q_ok x22 i q b _ eq_refl Hq H' Nb)).
    (* the contents *)
    pose proof (rest_adv _ _ _ H) as R.
    destruct (runs_mlb_complete c vc (contents_mchunked c vc Hc) _ s' Vc R) as (l & Rl & El).
    destruct l as [|ci l'].
    { exfalso. apply Hne. apply (runs_nil_adv _ _ c _ Rl). reflexivity. }
    inversion Rl as [|? ? i2 ? ? E2 Hlt R2]; subst.
    rewrite (opt_ok _ _ _ _ E2). rewrite (chunks_runs _ _ _ _ R2).
    pose proof (rest_adv _ _ _ R) as R3. rewrite <- Es' in R3.
    rewrite (IH f _ _ s V2 R3).
    + rewrite !adv_adv. cbn [concat]. rewrite <- !app_assoc. reflexivity.
    + clear - Hsh Hf. lia.
Qed.

(* outcome of the loop: either it stopped after dropping quotes in front of a byte that is neither a
   quote nor content (then no closing delimiter can follow), or it read a sequence of groups *)
Definition loop_broke (i' : input) : Prop := exists b s, rest i' = b :: s /\ byte_eqb x22 b = false.

Lemma quote_loop_sound : forall fuel acc i v i', mlb_quote_loop fuel acc i = Ok v i' ->
  loop_broke i' \/
  exists t w, star qgroup t w /\ utf8_valid_b t = true /\ v = acc ++ w /\ splits i t i'.
Proof.
  induction fuel as [|f IH]; intros acc i v i' H; [discriminate|]. rewrite mlb_quote_loop_S in H.
  destruct (opt (quotes2 x22 (not_q x22)) i) as [[qi|] i1|e j|e j|st] eqn:Eq; try discriminate.
  - apply opt_inv in Eq as [(q0 & Eq0 & Eq) | (Eq0 & _)]; [injection Eq0 as <-|discriminate].
    apply quotes2_inv in Eq as (Hq & S1 & (x & j & Hn)). apply not_q_inv in Hn as (b & s & Eb & Nb).
    destruct (opt mlb_content i1) as [[ci|] i2|e j'|e j'|st] eqn:Ec; try discriminate.
    + apply opt_inv in Ec as [(c0 & Ec0 & Ec) | (Ec0 & _)]; [injection Ec0 as <-|discriminate].
      destruct (chunks mlb_content i2) as [more i3|e j'|e j'|st] eqn:Em; try discriminate.
      apply (chunks_inv _ _ _ _ mlb_content_shrinking) in Em as (l & -> & R).
      apply IH in H as [Hb | (t & w & St & V & -> & S3)]; [left; exact Hb|right].
      assert (Rc : runs mlb_content i1 (ci :: l) i3).
      { eapply runs_cons; [exact Ec| |exact R]. apply mlb_content_inv in Ec as (t1 & S & _ & Hne & _).
        apply splits_len in S. destruct t1; [congruence|simpl in S; lia]. }
      apply runs_mlb_sound in Rc as (c & S2 & Vc & Hc & Hne).
      exists ((qi ++ c) ++ t), ((qi ++ concat (ci :: l)) ++ w). split; [|split; [|split]].
      * apply star_cons; [|exact St]. exists qi, qi, c, (concat (ci :: l)). repeat split.
        -- apply quotes_of_intro, Hq.
        -- apply Hne. discriminate.
        -- exact Hc.
      * rewrite <- app_assoc. rewrite utf8_app_ascii by (destruct Hq as [-> | ->]; reflexivity).
        apply utf8_join; assumption.
      * cbn [concat]. rewrite <- !app_assoc. reflexivity.
      * apply (splits_trans _ _ _ _ _ (splits_trans _ _ _ _ _ S1 S2) S3).
    + apply opt_inv in Ec as [(c0 & Ec0 & _) | (_ & -> & _)]; [discriminate|].
      injection H as _ <-. left. exists b, s. auto.
  - apply opt_inv in Eq as [(q0 & Eq0 & _) | (_ & -> & _)]; [discriminate|].
    injection H as <- <-. right. exists [], []. split; [apply star_nil|]. split; [reflexivity|].
    split; [rewrite app_nil_r; reflexivity|apply splits_nil].
Qed.

(* ---- ml-basic-body ------------------------------------------------------------------------------------------------------------------ *)
Lemma ml_basic_body_unfold i :
  ml_basic_body i =
  (c <- chunks mlb_content ;;
   c2 <- (fun j => mlb_quote_loop (S (length (rest j))) c j) ;;
   q <- opt (quotes2 x22 (delim3 x22)) ;;
   ret (c2 ++ match q with Some qi => qi | None => [] end)) i.
Proof. reflexivity. Qed.

Theorem ml_basic_body_complete i t v s :
  ml_basic_body_tok t v -> utf8_valid_b t = true -> rest i = t ++ [x22; x22; x22] ++ s ->
  stops (byte_eqb x22) s -> ml_basic_body i = Ok v (adv t i).
Proof.
  intros (t1 & v1 & t23 & v23 & -> & -> & A & (t2 & v2 & t3 & v3 & -> & -> & B & C)) V H Hs.
  pose proof C as C'. apply maybe_mlb_quotes_cases in C as [C ->]. rewrite <- !app_assoc in H.
  (* well-formedness of the three parts *)
  assert (Ah3 : ascii_head t3) by (destruct C as [-> | [-> | ->]]; exact I || reflexivity).
  destruct (utf8_cut t1 _ (star_qgroup_ascii_head t2 v2 t3 B Ah3) V) as [V1 V23].
  destruct (utf8_cut t2 _ Ah3 V23) as [V2 _].
  (* what follows each part *)
  destruct (closing_quotes_head x22 t3 t3 s C') as (s2 & Es2).
  destruct (star_quoted_head x22 _ t2 v2 (x22 :: x22 :: s2) B) as (s1 & Es1).
  rewrite ml_basic_body_unfold.
  assert (H1 : rest i = t1 ++ x22 :: s1) by (rewrite H, Es2, Es1; reflexivity).
  destruct (runs_mlb_complete t1 v1 (contents_mchunked _ _ A) i s1 V1 H1) as (l1 & R1 & <-).
  rewrite (bind_ok _ _ _ _ _ (chunks_runs _ _ _ _ R1)).
  pose proof (rest_adv _ _ _ H) as R. rewrite Es2 in R.
  rewrite (bind_ok (fun j => mlb_quote_loop (S (length (rest j))) (concat l1) j) _ (adv t1 i) _ (adv t2 (adv t1 i))
             (quote_loop_complete t2 v2 B _ _ _ s2 V2 R (Nat.lt_succ_diag_r _))).
  pose proof (rest_adv _ _ _ R) as R3. rewrite <- Es2 in R3.
  rewrite (bind_ok _ _ _ _ _ (closing_quotes_ok x22 _ t3 t3 s eq_refl C' R3 Hs)).
  unfold ret. rewrite !adv_adv, <- !app_assoc. destruct C as [-> | [-> | ->]]; reflexivity.
Qed.

Theorem ml_basic_body_sound i v i' : ml_basic_body i = Ok v i' ->
  loop_broke i' \/
  exists t, ml_basic_body_tok t v /\ utf8_valid_b t = true /\ splits i t i'.
Proof.
  rewrite ml_basic_body_unfold. intro H. apply bind_inv in H as (c & i1 & H1 & H).
  apply (chunks_inv _ _ _ _ mlb_content_shrinking) in H1 as (l & -> & R1).
  apply runs_mlb_sound in R1 as (t1 & S1 & V1 & A & _).
  apply bind_inv in H as (c2 & i2 & H2 & H). apply quote_loop_sound in H2.
  apply bind_inv in H as (q & i3 & H3 & H). apply ret_inv in H as [-> ->].
  destruct H2 as [(b & s & Eb & Nb) | (t2 & w & B & V2 & -> & S2)].
  - (* the loop broke: the optional closing quotes cannot match either *)
    left. apply opt_inv in H3 as [(q0 & -> & H3) | (_ & -> & _)]; [|exists b, s; auto].
    apply quotes2_inv in H3 as (Hq & [S3 _] & _). rewrite Eb in S3.
    destruct Hq as [-> | ->]; cbn [app] in S3; injection S3 as -> _; discriminate.
  - right.
    apply closing_quotes_inv in H3 as (t3 & C & E3 & S3).
    exists (t1 ++ t2 ++ t3). split; [|split].
    + exists t1, (concat l), (t2 ++ t3), (w ++ t3).
      split; [reflexivity|]. split; [rewrite E3, app_assoc; reflexivity|]. split; [exact A|].
      exists t2, w, t3, t3. auto.
    + apply utf8_join; [exact V1|]. apply utf8_join; [exact V2|].
      apply utf8_ascii, (maybe_mlb_quotes_ascii t3 t3 C).
    + apply (splits_trans _ _ _ _ _ S1 (splits_trans _ _ _ _ _ S2 S3)).
Qed.

(* ---- ml-basic-string ------------------------------------------------------------------------------------------------------------------ *)
Lemma ml_basic_string_unfold i :
  ml_basic_string i =
  (lit ML_BASIC_STRING_DELIM ;;;
   c <- context (opt newline ;;; cut_err ml_basic_body) ;;
   context (cut_err (lit ML_BASIC_STRING_DELIM)) ;;; ret c) i.
Proof. reflexivity. Qed.

Theorem ml_basic_string_sound i v i' : ml_basic_string i = Ok v i' ->
  exists t, ml_basic_string_tok t v /\ splits i t i'.
Proof.
  rewrite ml_basic_string_unfold. unfold ML_BASIC_STRING_DELIM. intro H.
  apply bind_inv in H as (x & i1 & H1 & H). apply lit_inv in H1 as [_ S1].
  apply bind_inv in H as (c & i3 & H3 & H). apply context_inv in H3.
  apply bind_inv in H3 as (o & i2 & H2 & H3). apply cut_err_inv in H3.
  apply bind_inv in H as (y & i4 & H4 & H). apply context_inv, cut_err_inv, lit_inv in H4 as [_ S4].
  apply ret_inv in H as [-> ->].
  apply ml_basic_body_sound in H3 as [(b & s & Eb & Nb) | (body & Hb & V & S3)].
  { exfalso. destruct S4 as [E4 _]. rewrite Eb in E4. cbn [app] in E4. injection E4 as -> _. discriminate. }
  destruct (opt_newline_sound _ _ _ body _ H2 (proj1 S3)) as (nl & Hnl & S2).
  exists ([x22; x22; x22] ++ nl ++ body ++ [x22; x22; x22]). split.
  - split.
    + apply ml_frame_valid; [reflexivity|apply (first_newline_ascii nl body Hnl)|exact V].
    + exists nl, body. auto.
  - apply (splits_trans _ _ _ _ _ S1 (splits_trans _ _ _ _ _ S2 (splits_trans _ _ _ _ _ S3 S4))).
Qed.

Lemma mlb_body_head body v s : ml_basic_body_tok body v -> ~ starts_with_newline body ->
  ~ starts_with_newline (body ++ x22 :: s).
Proof.
  intros (t1 & v1 & t23 & v23 & -> & -> & A & (t2 & v2 & t3 & v3 & -> & -> & B & C)) N.
  destruct (maybe_quoted_head x22 t3 v3 s C) as (s3 & Es3).
  destruct (star_quoted_head x22 _ t2 v2 s3 B) as (s' & Es').
  rewrite <- !app_assoc, Es3, Es'.
  assert (Hq : ~ starts_with_newline (x22 :: s')) by (intros (nl & t' & [-> | ->] & E); discriminate).
  destruct A as [|c v t w [(b & Hb & -> & ->) | He] _|c v t w [Hnl _] _|e t w He _ _].
  - exact Hq.
  - destruct (mlb_unescaped_not_special b Hb) as (_ & _ & N1 & N2).
    intros (nl & t' & [-> | ->] & E); injection E as -> _; discriminate.
  - destruct (escaped_ascii c v He) as (_ & t' & ->).
    intros (nl & u & [-> | ->] & E); discriminate.
  - destruct N. exists c, (t ++ t2 ++ t3). split; [exact Hnl|]. rewrite <- app_assoc. reflexivity.
  - destruct (escaped_nl_head e He) as (e' & ->).
    intros (nl & u & [-> | ->] & E); discriminate.
Qed.

Theorem ml_basic_string_complete i t v r : ml_basic_string_tok t v -> rest i = t ++ r ->
  stops (byte_eqb x22) r -> ml_basic_string i = Ok v (adv t i).
Proof.
  intros (V & nl & body & -> & Hnl & Hb) H Hr. rewrite ml_basic_string_unfold. unfold ML_BASIC_STRING_DELIM.
  rewrite <- !app_assoc in H.
  rewrite (bind_ok _ _ _ _ _ (lit_ok _ i _ H)). pose proof (rest_adv _ _ _ H) as R1.
  apply (ml_frame_valid x22 nl body eq_refl (first_newline_ascii nl body Hnl)) in V as Vb.
  pose proof (rest_adv _ _ _ R1) as R2.
  rewrite (bind_ok _ _ _ v (adv body (adv nl (adv [x22; x22; x22] i)))).
  - pose proof (rest_adv _ _ _ R2) as R3.
    rewrite (bind_ok _ _ _ _ _ (context_ok _ _ _ _ (cut_err_ok _ _ _ _ (lit_ok [x22; x22; x22] _ r R3)))).
    unfold ret. rewrite !adv_adv. reflexivity.
  - apply context_ok.
    rewrite (bind_ok _ _ _ (match nl with [] => None | _ => Some tt end) (adv nl (adv [x22; x22; x22] i))).
    + apply cut_err_ok. apply (ml_basic_body_complete _ body v r Hb Vb R2 Hr).
    + apply (opt_newline_complete _ nl body _ Hnl (mlb_body_head body v _ Hb) R1).
Qed.

Lemma ml_basic_string_fails i : (forall s, rest i <> [x22; x22; x22] ++ s) -> fails ml_basic_string i.
Proof.
  intro H. unfold fails. rewrite ml_basic_string_unfold. unfold ML_BASIC_STRING_DELIM.
  apply bind_fails, lit_fails. exact H.
Qed.

Corollary ml_basic_string_cut_only i e j : ml_basic_string i = Cut e j ->
  forall t v r, rest i = t ++ r -> stops (byte_eqb x22) r -> ~ ml_basic_string_tok t v.
Proof. intros H t v r E Hr Ht. rewrite (ml_basic_string_complete i t v r Ht E Hr) in H. discriminate. Qed.
