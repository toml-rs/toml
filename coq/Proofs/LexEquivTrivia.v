(* Proofs/LexEquivTrivia.v — L1 for the tokens without structure: ws, newline, comment,
   unquoted-key, boolean.  For each: the parser returns Ok exactly on the texts of the grammar
   rule (maximal munch), and fails without commitment otherwise. *)
From TV Require Import Base.Prelude Base.Winnow Gen.Consts Spec.Abnf Spec.Lex.
From TV Require Import Model.Trivia Model.Numbers Model.Parse.
From TV Require Import Proofs.ConstsOk Proofs.LexEquivBase.
Require Import Lia ZifyBool ZifyN ZifyNat.

(* ---- runs ----------------------------------------------------------------------------------- *)
(* one more item in front of a run: p reads the non-empty text t, and the run goes on from there *)
Lemma runs_step {A} (p : parser A) i t r a l t' :
  rest i = t ++ r -> t <> [] -> p i = Ok a (adv t i) -> runs p (adv t i) l (adv t' (adv t i)) ->
  runs p i (a :: l) (adv (t ++ t') i).
Proof.
  intros H Hne E R. rewrite <- adv_adv. eapply runs_cons; [exact E| |exact R].
  rewrite (rest_adv t r i H), H, app_length. destruct t; [congruence|simpl; lia].
Qed.

(* ---- ws = *wschar --------------------------------------------------------------------------- *)
Lemma wschar_ascii b : wschar b = true -> ascii b = true.
Proof. unfold ascii. cls. lia. Qed.

Lemma ws_complete i t r :
  rest i = t ++ r -> ws_tok t -> stops wschar r -> ws i = Ok t (adv t i).
Proof.
  intros H Ht Hr. unfold ws. apply unchecked_ok.
  - unfold take_while0. rewrite (take_while_ext _ _ _ _ _ WSCHAR_ok).
    apply (take_while_ok 0 wschar i t r H Ht Hr). lia.
  - apply utf8_ascii. apply (forallb_impl wschar); [apply wschar_ascii|exact Ht].
Qed.

Lemma ws_sound i t i' :
  ws i = Ok t i' -> ws_tok t /\ splits i t i' /\ stops wschar (rest i').
Proof.
  unfold ws. intro H. apply unchecked_inv in H as [H _].
  unfold take_while0 in H. rewrite (take_while_ext _ _ _ _ _ WSCHAR_ok) in H.
  apply take_while_inv in H as (S & Ha & Hs & _). auto.
Qed.

(* ws never fails: it reads the maximal run of wschar *)
Lemma ws_spec i : exists t,
  ws i = Ok t (adv t i) /\ ws_tok t /\ rest i = t ++ rest (adv t i) /\ stops wschar (rest (adv t i)).
Proof.
  destruct (span_while_split wschar (rest i)) as (a & r & E & Ha & Hr & _).
  exists a. rewrite (rest_adv a r i E). split; [|auto]. apply (ws_complete i a r E Ha Hr).
Qed.

(* ---- newline = %x0A / %x0D.0A ------------------------------------------------------------------ *)
Lemma newline_complete i t r : rest i = t ++ r -> newline_tok t -> newline i = Ok tt (adv t i).
Proof.
  intros H [-> | ->]; unfold newline.
  - rewrite (bind_ok _ _ _ _ _ (any_ok i x0a r H)). reflexivity.
  - rewrite (bind_ok _ _ _ _ _ (any_ok i x0d (x0a :: r) H)). cbn [byte_eqb Byte.eqb].
    change (byte_eqb x0d x0a) with false. change (byte_eqb x0d x0d) with true. cbv iota.
    assert (R : rest (adv [x0d] i) = x0a :: r) by (apply rest_adv; exact H).
    rewrite (pvoid_ok _ _ _ _ (byte_ok LF _ r R)). rewrite adv_adv. reflexivity.
Qed.

Lemma newline_sound i u i' : newline i = Ok u i' -> exists t, newline_tok t /\ splits i t i'.
Proof.
  unfold newline. intro H. apply bind_inv in H as (b & i1 & H1 & H). apply any_inv in H1.
  destruct (byte_eqb b x0a) eqn:E1.
  - apply byte_eqb_eq in E1. subst b. apply ret_inv in H as [_ ->]. exists [x0a]. split; [left; reflexivity|exact H1].
  - destruct (byte_eqb b x0d) eqn:E2; [|discriminate].
    apply byte_eqb_eq in E2. subst b. apply pvoid_inv in H as (c & H). apply byte_inv in H as [_ S2].
    exists [x0d; x0a]. split; [right; reflexivity|]. apply (splits_trans _ _ _ _ _ H1 S2).
Qed.

(* newline either reads a newline or fails without commitment: never Cut, never Panic *)
Lemma newline_fails i : ~ starts_with_newline (rest i) -> fails newline i.
Proof.
  intro H. unfold newline. destruct (rest i) as [|b r] eqn:E.
  { apply bind_fails. apply any_fails. exact E. }
  unfold fails. rewrite (bind_ok _ _ _ _ _ (any_ok i b r E)).
  destruct (byte_eqb b x0a) eqn:E1.
  { apply byte_eqb_eq in E1. subst b. destruct H. exists [x0a], r. split; [left; reflexivity|reflexivity]. }
  destruct (byte_eqb b x0d) eqn:E2; [|unfold fail; eauto].
  apply byte_eqb_eq in E2. subst b.
  apply pvoid_fails. apply byte_fails. rewrite (rest_adv [x0d] r i E).
  destruct r as [|c r']; [exact I|]. cbn [stops]. destruct (byte_eqb LF c) eqn:E3; [|reflexivity].
  apply byte_eqb_eq in E3. subst c. destruct H. exists [x0d; x0a], r'. split; [right; reflexivity|reflexivity].
Qed.

Lemma starts_with_newline_dec s : starts_with_newline s \/ ~ starts_with_newline s.
Proof.
  destruct s as [|b r]; [right; intros (nl & t' & [-> | ->] & Q); discriminate|].
  destruct (byte_eqb b x0a) eqn:E1.
  { apply byte_eqb_eq in E1. subst b. left. exists [x0a], r. split; [left|]; reflexivity. }
  destruct (byte_eqb b x0d) eqn:E2.
  - apply byte_eqb_eq in E2. subst b. destruct r as [|c r'].
    + right. intros (nl & t' & [-> | ->] & Q); discriminate.
    + destruct (byte_eqb c x0a) eqn:E3.
      * apply byte_eqb_eq in E3. subst c. left. exists [x0d; x0a], r'. split; [right|]; reflexivity.
      * right. intros (nl & t' & [-> | ->] & Q); [discriminate|]. injection Q as ->.
        rewrite byte_eqb_refl in E3. discriminate.
  - right. intros (nl & t' & [-> | ->] & Q); injection Q as -> _.
    + rewrite byte_eqb_refl in E1. discriminate.
    + rewrite byte_eqb_refl in E2. discriminate.
Qed.

Lemma newline_cases i :
  (exists t r, newline_tok t /\ rest i = t ++ r /\ newline i = Ok tt (adv t i))
  \/ (~ starts_with_newline (rest i) /\ fails newline i).
Proof.
  destruct (starts_with_newline_dec (rest i)) as [(t & r & Ht & E) | N].
  - left. exists t, r. split; [exact Ht|]. split; [exact E|apply (newline_complete i t r E Ht)].
  - right. split; [exact N|apply newline_fails; exact N].
Qed.

(* ---- comment = comment-start-symbol *non-eol -------------------------------------------------------- *)
Lemma comment_complete i t r :
  rest i = t ++ r -> comment_tok t -> stops non_eol r -> comment i = Ok tt (adv t i).
Proof.
  intros H (u & -> & Hu) Hr. unfold comment. change COMMENT_START_SYMBOL with x23.
  rewrite (bind_ok _ _ _ _ _ (byte_ok x23 i (u ++ r) H)).
  assert (R : rest (adv [x23] i) = u ++ r) by (apply rest_adv; exact H).
  unfold take_while0. rewrite (bind_ok _ _ (adv [x23] i) u (adv u (adv [x23] i))).
  - rewrite adv_adv. reflexivity.
  - rewrite (take_while_ext _ _ _ _ _ NON_EOL_ok). apply (take_while_ok 0 non_eol _ u r R Hu Hr). lia.
Qed.

Lemma comment_sound i u i' :
  comment i = Ok u i' -> exists t, comment_tok t /\ splits i t i' /\ stops non_eol (rest i').
Proof.
  unfold comment. intro H. apply bind_inv in H as (b & i1 & H1 & H). apply byte_inv in H1 as [_ S1].
  apply bind_inv in H as (c & i2 & H2 & H). apply ret_inv in H as [_ ->].
  unfold take_while0 in H2. rewrite (take_while_ext _ _ _ _ _ NON_EOL_ok) in H2.
  apply take_while_inv in H2 as (S2 & Hc & Hs & _).
  exists (x23 :: c). split; [exists c; auto|]. split; [|exact Hs].
  apply (splits_trans _ _ _ _ _ S1 S2).
Qed.

(* comment never commits: it fails exactly when the input does not start with # *)
Lemma comment_fails i : stops (byte_eqb x23) (rest i) -> fails comment i.
Proof. intro H. unfold comment. apply bind_fails. apply byte_fails. exact H. Qed.

(* ---- unquoted-key = 1*( ALPHA / DIGIT / %x2D / %x5F ) ------------------------------------------------ *)
Lemma unquoted_ascii b : unquoted_key_char b = true -> ascii b = true.
Proof. unfold ascii. cls. lia. Qed.

Lemma unquoted_key_complete i t r :
  rest i = t ++ r -> unquoted_key_tok t -> stops unquoted_key_char r -> unquoted_key i = Ok t (adv t i).
Proof.
  intros H [Hne Ht] Hr. unfold unquoted_key. apply unchecked_ok.
  - unfold take_while1. rewrite (take_while_ext _ _ _ _ _ UNQUOTED_CHAR_ok).
    apply (take_while_ok 1 unquoted_key_char i t r H Ht Hr). destruct t; [congruence|simpl; lia].
  - apply utf8_ascii. apply (forallb_impl unquoted_key_char); [apply unquoted_ascii|exact Ht].
Qed.

Lemma unquoted_key_sound i t i' :
  unquoted_key i = Ok t i' -> unquoted_key_tok t /\ splits i t i' /\ stops unquoted_key_char (rest i').
Proof.
  unfold unquoted_key. intro H. apply unchecked_inv in H as [H _].
  unfold take_while1 in H. rewrite (take_while_ext _ _ _ _ _ UNQUOTED_CHAR_ok) in H.
  apply take_while_inv in H as (S & Ha & Hs & Hl). split; [|auto].
  split; [|exact Ha]. destruct t; [simpl in Hl; lia|discriminate].
Qed.

Lemma unquoted_key_fails i : stops unquoted_key_char (rest i) -> fails unquoted_key i.
Proof.
  intro H. unfold unquoted_key. apply unchecked_fails. apply take_while1_fails.
  unfold stops in *. destruct (rest i); [exact I|]. rewrite UNQUOTED_CHAR_ok. exact H.
Qed.

(* ---- boolean = true / false ----------------------------------------------------------------------------- *)
Lemma bool_lit_complete c l v i r :
  rest i = (c :: l) ++ r -> bool_lit (c :: l) v i = Ok v (adv (c :: l) i).
Proof.
  intro H. unfold bool_lit.
  rewrite (bind_ok _ _ _ _ _ (peek_ok _ _ _ _ (byte_ok c i (l ++ r) H))).
  rewrite (bind_ok _ _ _ _ _ (cut_err_ok _ _ _ _ (lit_ok (c :: l) i r H))). reflexivity.
Qed.

Lemma bool_lit_sound c l v i b i' :
  bool_lit (c :: l) v i = Ok b i' -> b = v /\ splits i (c :: l) i'.
Proof.
  unfold bool_lit. intro H. apply bind_inv in H as (x & i1 & H1 & H). apply peek_inv in H1 as [-> _].
  apply bind_inv in H as (y & i2 & H2 & H). apply cut_err_inv in H2. apply lit_inv in H2 as [_ S].
  apply ret_inv in H as [-> ->]. auto.
Qed.

(* the committed failure of a boolean: the first byte matches, the spelling does not *)
Lemma bool_lit_cut c l v i e j :
  bool_lit (c :: l) v i = Cut e j -> forall r, rest i <> (c :: l) ++ r.
Proof.
  intros H r E. rewrite (bool_lit_complete c l v i r E) in H. discriminate.
Qed.

Lemma true_complete i r : rest i = t_true ++ r -> true_ i = Ok true (adv t_true i).
Proof. apply bool_lit_complete. Qed.
Lemma false_complete i r : rest i = t_false ++ r -> false_ i = Ok false (adv t_false i).
Proof. apply bool_lit_complete. Qed.
Lemma true_sound i b i' : true_ i = Ok b i' -> b = true /\ splits i t_true i'.
Proof. apply bool_lit_sound. Qed.
Lemma false_sound i b i' : false_ i = Ok b i' -> b = false /\ splits i t_false i'.
Proof. apply bool_lit_sound. Qed.

Lemma boolean_complete i t b r :
  rest i = t ++ r -> boolean_tok t b -> (true_ <|> false_) i = Ok b (adv t i).
Proof.
  intros H [[-> ->] | [-> ->]].
  - apply alt_ok. apply (true_complete i r H).
  - rewrite alt_fails_l; [apply (false_complete i r H)|].
    unfold true_, bool_lit, TRUE. apply bind_fails. apply peek_fails. apply byte_fails.
    rewrite H. reflexivity.
Qed.

Lemma boolean_sound i b i' :
  (true_ <|> false_) i = Ok b i' -> exists t, boolean_tok t b /\ splits i t i'.
Proof.
  intro H. apply alt_inv in H as [H | [_ H]].
  - apply true_sound in H as [-> S]. exists t_true. split; [left; auto|exact S].
  - apply false_sound in H as [-> S]. exists t_false. split; [right; auto|exact S].
Qed.
