(* Proofs/PrintBackBase.v — C03: printing an unedited parsed document.
   `print_doc s d` is what `DocumentMut::to_string()` does after `ImDocument::into_mut` (despan,
   then Display): Model/Encode.v.  Despanning fails only if a stored span is out of range or off a
   char boundary (C14); whenever it succeeds the text it substitutes is the slice of the source, so
   printing is `render s d`: the same with the total substitution `ttbl` / `traw`. *)
From TV Require Import Base.Prelude.
From TV Require Import Model.Tree Model.Document Model.Encode.

Definition print_doc (s : bytes) (d : doc) : option bytes :=
  match tbl_despan s (doc_root d), raw_despan s (doc_trailing d) with
  | Some r, Some t => Some (display_document r t)
  | _, _ => None
  end.

(* ---- total despan ----------------------------------------------------------------------------------- *)
Section TDespan.
  Variable src : bytes.
  Definition traw (r : raw) : raw :=
    match r with RSpanned a b => raw_of_bytes (slice src a b) | _ => r end.
  Definition toraw (o : option raw) : option raw := match o with Some r => Some (traw r) | None => None end.
  Definition tdecor (d : decor) : decor := mkDecor (toraw (d_prefix d)) (toraw (d_suffix d)).
  Definition tkey (k : key) : key := mkKey (k_key k) (toraw (k_repr k)) (tdecor (k_leaf k)) (tdecor (k_dotted k)).

  Fixpoint tvalue (v : value) : value :=
    match v with
    | VScalar s r d => VScalar s (toraw r) (tdecor d)
    | VArray vals tr c d _ =>
      VArray ((fix go (l : list item) : list item := match l with [] => [] | it :: tl => titem it :: go tl end) vals)
             (traw tr) c (tdecor d) None
    | VInline items pre im dt d _ =>
      VInline ((fix go (l : list (key * item)) : list (key * item) :=
                  match l with [] => [] | (k, it) :: tl => (tkey k, titem it) :: go tl end) items)
              (traw pre) im dt (tdecor d) None
    end
  with titem (it : item) : item :=
    match it with
    | INone => INone
    | IValue v => IValue (tvalue v)
    | ITable t => ITable (ttbl t)
    | IAot ts _ => IAot ((fix go (l : list tbl) : list tbl := match l with [] => [] | t :: tl => ttbl t :: go tl end) ts) None
    end
  with ttbl (t : tbl) : tbl :=
    match t with
    | Tbl items d im dt p _ =>
      Tbl ((fix go (l : list (key * item)) : list (key * item) :=
              match l with [] => [] | (k, it) :: tl => (tkey k, titem it) :: go tl end) items)
          (tdecor d) im dt p None
    end.
End TDespan.

Definition render (s : bytes) (d : doc) : bytes := display_document (ttbl s (doc_root d)) (traw s (doc_trailing d)).

(* ---- print_doc is render whenever despanning succeeds ------------------------------------------------ *)
Lemma raw_despan_traw s r r' : raw_despan s r = Some r' -> r' = traw s r.
Proof.
  destruct r as [|t|a b]; cbn [raw_despan traw]; try (intro H; injection H as <-; reflexivity).
  unfold str_get. destruct (_ && _ && _ && _)%bool; [|discriminate]. intro H. injection H as <-. reflexivity.
Qed.
