(* Proofs/DocumentOps.v — what the operations of the ParseState machine (state.rs) and the document loop
   (document.rs) do, said once and with no invariant built in: the field setters of a table and `pop_key`;
   descend_path on success as a relation between the table before and after; each operation inverted on success
   into the one descent it makes, with the closure it hands over under a name; the two `key = value` parsers as
   one; what one line of the document consumes and which operation records it; the loop and `parse_document`
   on success. *)
From TV Require Import Base.Prelude Base.Winnow Base.WinnowFacts Gen.Consts.
From TV Require Import Model.Trivia Model.Tree Model.Parse Model.Document.
From TV Require Import Proofs.KvFacts.

(* ---- a table's field setters ------------------------------------------------------------------------------------ *)
Lemma items_set_items t m : t_items (t_set_items t m) = m.
Proof. destruct t; reflexivity. Qed.
Lemma items_set_span t sp : t_items (t_set_span t sp) = t_items t.
Proof. destruct t; reflexivity. Qed.
Lemma span_set_items t m : t_span (t_set_items t m) = t_span t.
Proof. destruct t; reflexivity. Qed.
Lemma span_set_span t sp : t_span (t_set_span t sp) = sp.
Proof. destruct t; reflexivity. Qed.
Lemma dotted_set_items t m : t_dotted (t_set_items t m) = t_dotted t.
Proof. destruct t; reflexivity. Qed.
Lemma dotted_set_span t sp : t_dotted (t_set_span t sp) = t_dotted t.
Proof. destruct t; reflexivity. Qed.
Lemma implicit_set_items t m : t_implicit (t_set_items t m) = t_implicit t.
Proof. destruct t; reflexivity. Qed.
Lemma implicit_set_span t sp : t_implicit (t_set_span t sp) = t_implicit t.
Proof. destruct t; reflexivity. Qed.
Lemma set_items_same t : t_set_items t (t_items t) = t.
Proof. destruct t; reflexivity. Qed.
Lemma set_span_same t : t_set_span t (t_span t) = t.
Proof. destruct t; reflexivity. Qed.
Lemma set_items_set_items t m m' : t_set_items (t_set_items t m) m' = t_set_items t m'.
Proof. destruct t; reflexivity. Qed.
Lemma set_span_set_span t s s' : t_set_span (t_set_span t s) s' = t_set_span t s'.
Proof. destruct t; reflexivity. Qed.
Lemma set_span_set_items t m s : t_set_span (t_set_items t m) s = t_set_items (t_set_span t s) m.
Proof. destruct t; reflexivity. Qed.

(* ---- pop_key ------------------------------------------------------------------------------------------------------- *)
Lemma pop_key_spec p : match pop_key p with Some (pp, k) => p = pp ++ [k] | None => p = [] end.
Proof.
  unfold pop_key. destruct (rev p) as [|last rinit] eqn:E; rewrite <- (rev_involutive p), E; reflexivity.
Qed.
Lemma pop_key_some p pp k : pop_key p = Some (pp, k) -> p = pp ++ [k].
Proof. intro E. pose proof (pop_key_spec p) as H. rewrite E in H. exact H. Qed.
Lemma pop_key_none p : pop_key p = None -> p = [].
Proof. intro E. pose proof (pop_key_spec p) as H. rewrite E in H. exact H. Qed.
Lemma pop_key_app pp k : pop_key (pp ++ [k]) = Some (pp, k).
Proof. unfold pop_key. rewrite rev_app_distr. cbn [rev app]. rewrite rev_involutive. reflexivity. Qed.
Lemma pop_key_nonempty p : p <> [] -> exists pp k, pop_key p = Some (pp, k).
Proof. intro Hne. pose proof (pop_key_spec p) as H. destruct (pop_key p) as [[pp k]|]; [eauto|contradiction]. Qed.

(* ---- descend_path on success -------------------------------------------------------------------------------------- *)
Definition cres_post {X} (Q : tbl -> X -> Prop) (r : cres (tbl * X)) : Prop :=
  match r with COk (t, x) => Q t x | _ => True end.

(* the table an absent key of the path makes *)
Definition implicitd (d : bool) : tbl := Tbl [] decor_default true d None None.

(* `dctx_rel d p r r' par par'`: the path p leads from r down to par, and r' is r with par' in the place of par
   (tables made on the way for absent keys, the last element of an array of tables entered) *)
Inductive dctx_rel (d : bool) : list key -> tbl -> tbl -> tbl -> tbl -> Prop :=
| dcr_here t t' : dctx_rel d [] t t' t t'
| dcr_new t k p sub par par' :
    kv_get (t_items t) (k_key k) = None -> dctx_rel d p (implicitd d) sub par par' ->
    dctx_rel d (k :: p) t (t_set_items t (kv_push (t_items t) k (ITable sub))) par par'
| dcr_tab t k p k0 sub sub' par par' :
    kv_get (t_items t) (k_key k) = Some (k0, ITable sub) -> dctx_rel d p sub sub' par par' ->
    dctx_rel d (k :: p) t (t_set_items t (kv_set (t_items t) (k_key k) (ITable sub'))) par par'
| dcr_aot t k p k0 ts sp last rinit last' par par' :
    kv_get (t_items t) (k_key k) = Some (k0, IAot ts sp) -> rev ts = last :: rinit -> dctx_rel d p last last' par par' ->
    dctx_rel d (k :: p) t (t_set_items t (kv_set (t_items t) (k_key k) (IAot (rev (last' :: rinit)) sp))) par par'.

Lemma wta_dctx {X} (d : bool) (f : tbl -> cres (tbl * X)) : forall p r r' x,
  with_table_at r p d f = COk (r', x) -> exists par par', f par = COk (par', x) /\ dctx_rel d p r r' par par'.
Proof.
  induction p as [|k p IH]; intros r r' x H; cbn [with_table_at] in H.
  - exists r, r'. split; [exact H|constructor].
  - destruct (kv_get (t_items r) (k_key k)) as [[k0 it]|] eqn:G.
    + destruct it as [|v|sub|ts sp]; try discriminate.
      * destruct (d && negb (t_implicit sub)); [discriminate|].
        destruct (with_table_at sub p d f) as [[sub' x']| |] eqn:E; try discriminate. injection H as <- <-.
        destruct (IH _ _ _ E) as (par & par' & Hf & Hc). exists par, par'. split; [exact Hf|]. eapply dcr_tab; eassumption.
      * destruct (d && match p with [] => false | _ => true end); [discriminate|]. destruct (rev ts) as [|last rinit] eqn:Er; [discriminate|].
        destruct (with_table_at last p d f) as [[last' x']| |] eqn:E; try discriminate. injection H as <- <-.
        destruct (IH _ _ _ E) as (par & par' & Hf & Hc). exists par, par'. split; [exact Hf|]. eapply dcr_aot; eassumption.
    + destruct (with_table_at (Tbl [] decor_default true d None None) p d f) as [[sub x']| |] eqn:E; try discriminate. injection H as <- <-.
      destruct (IH _ _ _ E) as (par & par' & Hf & Hc). exists par, par'. split; [exact Hf|]. apply dcr_new; assumption.
Qed.

(* the same as an induction principle: `R path t t'` relates the table before and after, one fact per kind of entry met *)
Section WtaInd.
  Context {X : Type} (dotted : bool) (f : tbl -> cres (tbl * X)) (x : X) (R : list key -> tbl -> tbl -> Prop).
  Hypothesis Rhere : forall t t', f t = COk (t', x) -> R [] t t'.
  Hypothesis Rnew : forall t k p sub', kv_get (t_items t) (k_key k) = None ->
    R p (Tbl [] decor_default true dotted None None) sub' ->
    R (k :: p) t (t_set_items t (kv_push (t_items t) k (ITable sub'))).
  Hypothesis Rtab : forall t k p k' sub sub', kv_get (t_items t) (k_key k) = Some (k', ITable sub) ->
    R p sub sub' -> R (k :: p) t (t_set_items t (kv_set (t_items t) (k_key k) (ITable sub'))).
  Hypothesis Raot : forall t k p k' ts sp last rinit last',
    kv_get (t_items t) (k_key k) = Some (k', IAot ts sp) -> rev ts = last :: rinit -> R p last last' ->
    R (k :: p) t (t_set_items t (kv_set (t_items t) (k_key k) (IAot (rev (last' :: rinit)) sp))).

  Lemma wta_ind path t t' : with_table_at t path dotted f = COk (t', x) -> R path t t'.
  Proof.
    intro E. destruct (wta_dctx _ _ _ _ _ _ E) as (par & par' & Hf & Hc). clear E.
    induction Hc as [t t'|t k p sub par par' G Hc IH|t k p k0 sub sub' par par' G Hc IH|t k p k0 ts sp last rinit last' par par' G Er Hc IH].
    - apply Rhere, Hf.
    - apply Rnew; [exact G|apply IH, Hf].
    - eapply Rtab; [exact G|apply IH, Hf].
    - eapply Raot; [exact G|exact Er|apply IH, Hf].
  Qed.
End WtaInd.

(* and for an invariant carried down the path (it may use that the keys of the path satisfy `K`): `R t t' x` relates a
   table met to what is put back in its place, x being the closure's result *)
Section WtaPost.
  Context {X : Type}.
  Variables (dotted : bool) (Inv : tbl -> Prop) (K : key -> Prop) (R : tbl -> tbl -> X -> Prop).
  Hypothesis Hnone : forall t k, Inv t -> K k -> kv_get (t_items t) (k_key k) = None ->
    Inv (Tbl [] decor_default true dotted None None)
    /\ forall sub' x, R (Tbl [] decor_default true dotted None None) sub' x ->
                      R t (t_set_items t (kv_push (t_items t) k (ITable sub'))) x.
  Hypothesis Htable : forall t k k0 sub, Inv t -> kv_get (t_items t) k = Some (k0, ITable sub) ->
    Inv sub /\ forall sub' x, R sub sub' x -> R t (t_set_items t (kv_set (t_items t) k (ITable sub'))) x.
  Hypothesis Haot : forall t k k0 ts asp last rinit,
    Inv t -> kv_get (t_items t) k = Some (k0, IAot ts asp) -> rev ts = last :: rinit ->
    Inv last /\ forall last' x, R last last' x -> R t (t_set_items t (kv_set (t_items t) k (IAot (rev (last' :: rinit)) asp))) x.

  Lemma wta_post path t (f : tbl -> cres (tbl * X)) :
    Inv t -> Forall K path -> (forall p, Inv p -> cres_post (R p) (f p)) ->
    cres_post (R t) (with_table_at t path dotted f).
  Proof.
    intros Ht Hp Hf. destruct (with_table_at t path dotted f) as [[t' x]| |] eqn:E; [|exact I|exact I].
    revert Ht Hp. cbn [cres_post].
    apply (wta_ind dotted f x (fun p t t' => Inv t -> Forall K p -> R t t' x)); [| | | |exact E].
    - intros u u' Eu Hu _. specialize (Hf u Hu). rewrite Eu in Hf. exact Hf.
    - intros u k p sub' G IH Hu Hk. inversion Hk; subst. destruct (Hnone u k Hu) as [Hs Hr]; auto.
    - intros u k p k' sub sub' G IH Hu Hk. inversion Hk; subst. destruct (Htable u _ _ _ Hu G) as [Hs Hr]. auto.
    - intros u k p k' ts sp last rinit last' G Rv IH Hu Hk. inversion Hk; subst. destruct (Haot u _ _ _ _ _ _ Hu G Rv) as [Hs Hr]. auto.
  Qed.
End WtaPost.

(* a header path (dotted = false) descended a second time leads to the table the first descent left:
   two descents are one descent with the closures composed *)
Lemma wta_twice {X Y} (f : tbl -> cres (tbl * X)) (g : tbl -> cres (tbl * Y)) : forall ppath t t' x,
  with_table_at t ppath false f = COk (t', x) ->
  with_table_at t' ppath false g =
  with_table_at t ppath false
    (fun p => match f p with COk (p', _) => g p' | CErr c => CErr c | CPanic s => CPanic s end).
Proof.
  set (fg := fun p => match f p with COk (p', _) => g p' | CErr c => CErr c | CPanic s => CPanic s end).
  induction ppath as [|k ptl IH]; intros t t' x H; cbn [with_table_at] in *; [unfold fg; rewrite H; reflexivity|].
  destruct (kv_get (t_items t) (k_key k)) as [[k' it]|] eqn:G.
  - destruct it as [|v|sub|ts sp]; try discriminate H; cbn [andb] in *.
    + destruct (with_table_at sub ptl false f) as [[sub' x']| |] eqn:E; try discriminate H.
      inversion H; subst t' x. rewrite items_set_items, (kv_get_set_same _ _ _ _ _ G). cbn [andb].
      rewrite (IH _ _ _ E). destruct (with_table_at sub ptl false fg) as [[sub'' y]| |]; try reflexivity.
      rewrite kv_set_set, set_items_set_items. reflexivity.
    + destruct (rev ts) as [|last rinit] eqn:R; [discriminate H|].
      destruct (with_table_at last ptl false f) as [[last' x']| |] eqn:E; try discriminate H.
      inversion H; subst t' x. rewrite items_set_items, (kv_get_set_same _ _ _ _ _ G). cbn [andb].
      change (rev rinit ++ [last']) with (rev (last' :: rinit)). rewrite rev_involutive, (IH _ _ _ E).
      destruct (with_table_at last ptl false fg) as [[last'' y]| |]; try reflexivity.
      rewrite kv_set_set, set_items_set_items. reflexivity.
  - destruct (with_table_at (Tbl [] decor_default true false None None) ptl false f)
      as [[sub' x']| |] eqn:E; try discriminate H.
    inversion H; subst t' x. rewrite items_set_items, (kv_get_push_new _ _ _ G). cbn [andb].
    rewrite (IH _ _ _ E). destruct (with_table_at _ ptl false fg) as [[sub'' y]| |]; try reflexivity.
    rewrite (kv_set_push_none _ _ _ _ G), set_items_set_items. reflexivity.
Qed.

(* ---- the closures handed to descend_path ---------------------------------------------------------------------------- *)
(* on_keyval: the key as stored (its leaf prefix becomes the trivia collected since the last item, up to the key),
   the current table with its span extended to the end of the value, and the insertion *)
Definition kv_prefix (st : pstate) (k : key) : raw :=
  match (match st_trailing st, (match d_prefix (k_leaf k) with Some r => raw_span r | None => None end) with
         | Some p, Some kk => Some (fst p, snd kk)
         | Some p, None => Some p
         | None, Some p => Some p
         | None, None => None
         end) with
  | Some sp => raw_with_span sp
  | None => REmpty
  end.
Definition kv_key (st : pstate) (k : key) : key := set_leaf k (mkDecor (Some (kv_prefix st k)) (d_suffix (k_leaf k))).
Definition kv_cur (st : pstate) (v : item) : tbl :=
  match t_span (st_current st), item_span v with
  | Some e, Some vs => t_set_span (st_current st) (Some (fst e, snd vs))
  | _, _ => st_current st
  end.
Definition path_empty (path : list key) : bool := match path with [] => true | _ => false end.
Definition f_keyval (k : key) (v : item) (pe : bool) : tbl -> cres (tbl * unit) :=
  fun table =>
    if Bool.eqb (t_dotted table) pe then CErr DuplicateKey
    else match kv_get (t_items table) (k_key k) with
         | None => COk (t_set_items table (kv_push (t_items table) k v), tt)
         | Some _ => CErr DuplicateKey
         end.
(* finalize_table, for a table under a [header] and for an element of an [[array of tables]] *)
Definition f_fin_std (k : key) (table : tbl) : tbl -> cres (tbl * unit) :=
  fun parent =>
    match kv_get (t_items parent) (k_key k) with
    | Some (_, ITable t) =>
      if t_implicit t then COk (t_set_items parent (kv_set (t_items parent) (k_key k) (ITable table)), tt)
      else CErr DuplicateKey
    | Some _ => CErr DuplicateKey
    | None => COk (t_set_items parent (kv_push (t_items parent) k (ITable table)), tt)
    end.
Definition f_fin_aot (k : key) (table : tbl) : tbl -> cres (tbl * unit) :=
  fun parent =>
    match kv_get (t_items parent) (k_key k) with
    | None => COk (t_set_items parent (kv_push (t_items parent) k (IAot [table] (union_span (t_span table) (t_span table)))), tt)
    | Some (_, IAot ts _) =>
      let ts' := ts ++ [table] in
      let sp := match ts' with
                | first :: _ => union_span (t_span first) (t_span table)
                | [] => None
                end in
      COk (t_set_items parent (kv_set (t_items parent) (k_key k) (IAot ts' sp)), tt)
    | Some _ => CErr DuplicateKey
    end.
(* start_table (it takes out an implicit table standing under the name) and start_array_table *)
Definition f_start_std (k : key) : tbl -> cres (tbl * option tbl) :=
  fun parent =>
    match kv_get (t_items parent) (k_key k) with
    | None => COk (parent, None)
    | Some (_, ITable t) =>
      if t_implicit t && negb (t_dotted t)
      then COk (t_set_items parent (kv_remove (t_items parent) (k_key k)), Some t)
      else CErr DuplicateKey
    | Some _ => CErr DuplicateKey
    end.
Definition f_start_aot (k : key) : tbl -> cres (tbl * unit) :=
  fun parent =>
    match kv_get (t_items parent) (k_key k) with
    | None => COk (t_set_items parent (kv_push (t_items parent) k (IAot [] None)), tt)
    | Some (_, IAot _ _) => COk (parent, tt)
    | Some _ => CErr DuplicateKey
    end.

Lemma kv_key_key st k : k_key (kv_key st k) = k_key k.
Proof. reflexivity. Qed.
Lemma f_keyval_inv k v pe p p' y : f_keyval k v pe p = COk (p', y) ->
  t_dotted p = negb pe /\ kv_get (t_items p) (k_key k) = None /\ p' = t_set_items p (kv_push (t_items p) k v).
Proof.
  unfold f_keyval. destruct (t_dotted p), pe; cbn [Bool.eqb]; try discriminate;
    (destruct (kv_get _ _); [discriminate|]; intro E; inversion E; auto).
Qed.
Lemma f_start_std_inv k par par' taken : f_start_std k par = COk (par', taken) ->
  match taken with
  | Some t => (exists k0, kv_get (t_items par) (k_key k) = Some (k0, ITable t)) /\ t_implicit t = true /\ t_dotted t = false
              /\ par' = t_set_items par (kv_remove (t_items par) (k_key k))
  | None => kv_get (t_items par) (k_key k) = None /\ par' = par
  end.
Proof.
  unfold f_start_std. destruct (kv_get (t_items par) (k_key k)) as [[k0 [|v0|t0|ts asp]]|]; try discriminate.
  - destruct (t_implicit t0 && negb (t_dotted t0)) eqn:Ef; [|discriminate]. intro Hf. injection Hf as <- <-.
    apply andb_true_iff in Ef as [Ei Ed]. apply negb_true_iff in Ed. eauto.
  - intro Hf. injection Hf as <- <-. auto.
Qed.
Lemma f_start_aot_inv k par par' u : f_start_aot k par = COk (par', u) ->
  (exists k0 ts asp, kv_get (t_items par) (k_key k) = Some (k0, IAot ts asp)) /\ par' = par
  \/ kv_get (t_items par) (k_key k) = None /\ par' = t_set_items par (kv_push (t_items par) k (IAot [] None)).
Proof.
  unfold f_start_aot. destruct (kv_get (t_items par) (k_key k)) as [[k0 [|v0|t0|ts asp]]|]; try discriminate;
    intro Hf; injection Hf as <-; [left|right]; eauto.
Qed.

(* ---- the operations as one descent each ----------------------------------------------------------------------------- *)
Lemma on_keyval_eq st path k v :
  on_keyval st path k v =
  match with_table_at (kv_cur st v) path true (f_keyval (kv_key st k) v (path_empty path)) with
  | COk (cur', _) => COk (mkState (st_root st) None (st_position st) cur' (st_is_array st) (st_path st))
  | CErr c => CErr c
  | CPanic s => CPanic s
  end.
Proof. reflexivity. Qed.

(* the state finalize_table leaves *)
Definition finalized (st : pstate) (root' : tbl) : pstate :=
  mkState root' (st_trailing st) (st_position st) tbl_new (st_is_array st) [].

Lemma finalize_table_eq st :
  finalize_table st =
  match pop_key (st_path st) with
  | None => if tbl_is_empty (st_root st) then COk (finalized st (st_current st)) else CPanic P_root_not_empty
  | Some (ppath, k) =>
    match with_table_at (st_root st) ppath false ((if st_is_array st then f_fin_aot else f_fin_std) k (st_current st)) with
    | COk (root', _) => COk (finalized st root')
    | CErr c => CErr c
    | CPanic s => CPanic s
    end
  end.
Proof.
  unfold finalize_table, finalized. destruct (pop_key (st_path st)) as [[pp k]|]; [destruct (st_is_array st)|]; reflexivity.
Qed.

Lemma start_table_eq st path dec sp :
  start_table st path dec sp =
  if negb (tbl_is_empty (st_current st)) then CPanic (P_debug_assert 1)
  else match st_path st with
       | _ :: _ => CPanic (P_debug_assert 2)
       | [] =>
         match pop_key path with
         | None => CPanic (P_debug_assert 0)
         | Some (ppath, k) =>
           match with_table_at (st_root st) ppath false (f_start_std k) with
           | COk (root', taken) =>
             COk (open_table st root' (match taken with Some t => t | None => st_current st end) path dec sp false)
           | CErr c => CErr c
           | CPanic s => CPanic s
           end
         end
       end.
Proof. reflexivity. Qed.
Lemma start_array_table_eq st path dec sp :
  start_array_table st path dec sp =
  if negb (tbl_is_empty (st_current st)) then CPanic (P_debug_assert 1)
  else match st_path st with
       | _ :: _ => CPanic (P_debug_assert 2)
       | [] =>
         match pop_key path with
         | None => CPanic (P_debug_assert 0)
         | Some (ppath, k) =>
           match with_table_at (st_root st) ppath false (f_start_aot k) with
           | COk (root', _) => COk (open_table st root' (st_current st) path dec sp true)
           | CErr c => CErr c
           | CPanic s => CPanic s
           end
         end
       end.
Proof. reflexivity. Qed.

(* ---- ... and on success ----------------------------------------------------------------------------------------------- *)
Lemma on_keyval_inv st path k v st' : on_keyval st path k v = COk st' ->
  exists cur', with_table_at (kv_cur st v) path true (f_keyval (kv_key st k) v (path_empty path)) = COk (cur', tt)
               /\ st' = mkState (st_root st) None (st_position st) cur' (st_is_array st) (st_path st).
Proof.
  rewrite on_keyval_eq. destruct (with_table_at _ path true _) as [[cur' []]| |]; try discriminate. intros [= <-]. eauto.
Qed.
(* the source's on_keyval: the insertion, then the spans of the dotted tables on the same path *)
Lemma on_keyval_sp_inv st path k v st' : on_keyval_sp st path k v = COk st' ->
  exists st1, on_keyval st path k v = COk st1
    /\ st' = mkState (st_root st1) (st_trailing st1) (st_position st1)
                     (set_dotted_spans (st_current st1) path (item_end v)) (st_is_array st1) (st_path st1).
Proof. unfold on_keyval_sp. destruct (on_keyval st path k v) as [st1| |]; try discriminate. intros [= <-]. eauto. Qed.

Lemma finalize_inv st st' : finalize_table st = COk st' ->
  exists root', st' = finalized st root'
    /\ match pop_key (st_path st) with
       | Some (ppath, k) =>
         with_table_at (st_root st) ppath false ((if st_is_array st then f_fin_aot else f_fin_std) k (st_current st)) = COk (root', tt)
       | None => tbl_is_empty (st_root st) = true /\ root' = st_current st
       end.
Proof.
  rewrite finalize_table_eq. destruct (pop_key (st_path st)) as [[ppath k]|].
  - destruct (with_table_at _ ppath false _) as [[root' []]| |]; try discriminate. intros [= <-]. eauto.
  - destruct (tbl_is_empty (st_root st)); [|discriminate]. intros [= <-]. eauto.
Qed.

Lemma start_table_inv st path dec sp st' : start_table st path dec sp = COk st' ->
  tbl_is_empty (st_current st) = true /\ st_path st = [] /\
  exists ppath k root' taken,
    pop_key path = Some (ppath, k) /\ with_table_at (st_root st) ppath false (f_start_std k) = COk (root', taken)
    /\ st' = open_table st root' (match taken with Some t => t | None => st_current st end) path dec sp false.
Proof.
  rewrite start_table_eq. destruct (tbl_is_empty (st_current st)); [|discriminate]. destruct (st_path st); [|discriminate].
  destruct (pop_key path) as [[ppath k]|]; [|discriminate].
  destruct (with_table_at _ ppath false _) as [[root' taken]| |] eqn:W; try discriminate. intros [= <-].
  split; [reflexivity|]. split; [reflexivity|]. exists ppath, k, root', taken. auto.
Qed.
Lemma start_array_table_inv st path dec sp st' : start_array_table st path dec sp = COk st' ->
  tbl_is_empty (st_current st) = true /\ st_path st = [] /\
  exists ppath k root',
    pop_key path = Some (ppath, k) /\ with_table_at (st_root st) ppath false (f_start_aot k) = COk (root', tt)
    /\ st' = open_table st root' (st_current st) path dec sp true.
Proof.
  rewrite start_array_table_eq. destruct (tbl_is_empty (st_current st)); [|discriminate]. destruct (st_path st); [|discriminate].
  destruct (pop_key path) as [[ppath k]|]; [|discriminate].
  destruct (with_table_at _ ppath false _) as [[root' []]| |] eqn:W; try discriminate. intros [= <-].
  split; [reflexivity|]. split; [reflexivity|]. exists ppath, k, root'. auto.
Qed.

(* the same with the descent as a relation and the closure read off: the table the header names is looked up under the
   last key k, in the table `par` that the rest of the path leads to.  start_table takes an implicit table standing
   there out of its parent and opens it; otherwise the name is free and it opens the (empty) current table. *)
Lemma start_table_dctx st path dec sp st' : start_table st path dec sp = COk st' ->
  tbl_is_empty (st_current st) = true /\ st_path st = [] /\
  exists ppath k root' par par' taken,
    pop_key path = Some (ppath, k) /\ dctx_rel false ppath (st_root st) root' par par'
    /\ st' = open_table st root' (match taken with Some t => t | None => st_current st end) path dec sp false
    /\ match taken with
       | Some t => (exists k0, kv_get (t_items par) (k_key k) = Some (k0, ITable t)) /\ t_implicit t = true /\ t_dotted t = false
                   /\ par' = t_set_items par (kv_remove (t_items par) (k_key k))
       | None => kv_get (t_items par) (k_key k) = None /\ par' = par
       end.
Proof.
  intro H. apply start_table_inv in H as (He & Hp & ppath & k & root' & taken & P & W & ->).
  destruct (wta_dctx false _ _ _ _ _ W) as (par & par' & Hf & Hc).
  split; [exact He|]. split; [exact Hp|]. exists ppath, k, root', par, par', taken.
  split; [exact P|]. split; [exact Hc|]. split; [reflexivity|]. apply f_start_std_inv, Hf.
Qed.
(* start_array_table opens the (empty) current table; the name is that of an array of tables, or free: then an empty array
   is entered under it *)
Lemma start_array_table_dctx st path dec sp st' : start_array_table st path dec sp = COk st' ->
  tbl_is_empty (st_current st) = true /\ st_path st = [] /\
  exists ppath k root' par par',
    pop_key path = Some (ppath, k) /\ dctx_rel false ppath (st_root st) root' par par'
    /\ st' = open_table st root' (st_current st) path dec sp true
    /\ ((exists k0 ts asp, kv_get (t_items par) (k_key k) = Some (k0, IAot ts asp)) /\ par' = par
        \/ kv_get (t_items par) (k_key k) = None /\ par' = t_set_items par (kv_push (t_items par) k (IAot [] None))).
Proof.
  intro H. apply start_array_table_inv in H as (He & Hp & ppath & k & root' & P & W & ->).
  destruct (wta_dctx false _ _ _ _ _ W) as (par & par' & Hf & Hc).
  split; [exact He|]. split; [exact Hp|]. exists ppath, k, root', par, par'.
  split; [exact P|]. split; [exact Hc|]. split; [reflexivity|]. apply (f_start_aot_inv _ _ _ _ Hf).
Qed.

(* on_keyval with the descent as a relation: the pair goes at the end of the table `par` that the path leads to *)
Lemma on_keyval_dctx st path k v st' : on_keyval st path k v = COk st' ->
  exists cur' par,
    dctx_rel true path (kv_cur st v) cur' par (t_set_items par (kv_push (t_items par) (kv_key st k) v))
    /\ t_dotted par = negb (path_empty path) /\ kv_get (t_items par) (k_key k) = None
    /\ st' = mkState (st_root st) None (st_position st) cur' (st_is_array st) (st_path st).
Proof.
  intro H. apply on_keyval_inv in H as (cur' & W & ->). destruct (wta_dctx true _ _ _ _ _ W) as (par & par' & Hf & Hc).
  apply f_keyval_inv in Hf as (Hd & G & ->). exists cur', par. auto.
Qed.

(* the span bookkeeping of dotted tables that follows the insertion, one step: it leaves the table alone, or goes on in
   the table under the first key, whose span it may have widened *)
Lemma set_dotted_spans_cons t k ptl e :
  set_dotted_spans t (k :: ptl) e = t
  \/ exists k0 sub sp, kv_get (t_items t) (k_key k) = Some (k0, ITable sub)
       /\ set_dotted_spans t (k :: ptl) e = t_set_items t (kv_set (t_items t) (k_key k) (ITable (set_dotted_spans (t_set_span sub sp) ptl e))).
Proof.
  cbn [set_dotted_spans]. destruct (kv_get (t_items t) (k_key k)) as [[k0 [|v0|sub|ts asp]]|]; auto. right. exists k0, sub.
  destruct (t_dotted sub), (key_span k), e; eauto; exists (t_span sub); rewrite set_span_same; auto.
Qed.

(* ---- key = value ------------------------------------------------------------------------------------------------------- *)
(* `inline_keyval` (inline_table.rs) and `parse_keyval` (document.rs) are one parser, given the parser of the value
   and the parser of what follows it *)
Definition keyval_of (vp : parser value) (sfx : parser (N * N)) : parser (list key * (key * item)) :=
  kp <- key_ ;;
  '(pre, v, suf) <- cut_err (context (byte_ KEYVAL_SEP) ;;;
                             pre <- span_ ws ;; v <- vp ;; suf <- sfx ;; ret (pre, v, suf)) ;;
  match pop_key kp with
  | None => fun _ => Panic P_key_path_empty
  | Some (path, k) => ret (path, (k, IValue (value_decorate v (raw_with_span pre) (raw_with_span suf))))
  end.
Lemma inline_keyval_of vp : inline_keyval vp = keyval_of vp (span_ ws).
Proof. reflexivity. Qed.
Lemma parse_keyval_of : parse_keyval = keyval_of value_ (context line_trailing).
Proof. reflexivity. Qed.

(* what `keyval_of` ran, in order: the key, the separator and the blanks, the value, what follows *)
Lemma keyval_of_ok vp sfx i x i' :
  keyval_of vp sfx i = Ok x i' ->
  exists kp path k j b j1 pre j2 v j3 suf,
    key_ i = Ok kp j /\ pop_key kp = Some (path, k) /\ context (byte_ KEYVAL_SEP) j = Ok b j1
    /\ span_ ws j1 = Ok pre j2 /\ vp j2 = Ok v j3 /\ sfx j3 = Ok suf i'
    /\ x = (path, (k, IValue (value_decorate v (raw_with_span pre) (raw_with_span suf)))).
Proof.
  intro E. unfold keyval_of in E. apply bind_inv in E as (kp & j & E0 & E). apply bind_inv in E as ([[pre v] suf] & j4 & E1 & E).
  destruct (pop_key kp) as [[path k]|] eqn:P; [|discriminate]. inversion E; subst x j4. clear E.
  apply cut_err_inv, bind_inv in E1 as (b & j1 & Eb & E1). apply bind_inv in E1 as (pre' & j2 & Ep & E1).
  apply bind_inv in E1 as (v' & j3 & Ev & E1). apply bind_inv in E1 as (suf' & j5 & Es & E1). inversion E1; subst.
  exists kp, path, k, j, b, j1, pre, j2, v, j3, suf. auto 10.
Qed.

(* ---- one line of the document loop ---------------------------------------------------------------------------------- *)
Lemma lift_state_ok {A} (r : cres A) a : lift_state r = TmOk a -> r = COk a.
Proof. destruct r; cbn [lift_state]; intro H; inversion H; reflexivity. Qed.

(* table.rs std_table / array_table: the text of a header, before on_std_header / on_array_header sees it *)
Definition header_syntax (is_array : bool) : parser ((list key * (N * N)) * (N * N)) :=
  let open_ := if is_array then pvoid (lit ARRAY_TABLE_OPEN) else pvoid (byte_ STD_TABLE_OPEN) in
  let close_ := if is_array then pvoid (lit ARRAY_TABLE_CLOSE) else pvoid (byte_ STD_TABLE_CLOSE) in
  pair_ (with_span (delimited open_ (cut_err key_) (context (cut_err close_))))
        (context (cut_err line_trailing)).
Lemma header_eq st ia :
  header ia st = try_map (fun '((h, sp), t) => lift_state (on_header ia st h t sp)) (header_syntax ia).
Proof. reflexivity. Qed.

(* the dispatch on the first byte of a line *)
Definition line_p (st : pstate) (b : byte) : parser pstate :=
  if byte_eqb b COMMENT_START_SYMBOL then cut_err (parse_comment st)
  else if byte_eqb b STD_TABLE_OPEN then cut_err (table st)
  else if byte_eqb b LF || byte_eqb b CR then parse_newline st
  else cut_err (keyval st).
Lemma doc_line_unfold st : doc_line st = (b <- peek any ;; st1 <- line_p st b ;; parse_ws st1).
Proof. reflexivity. Qed.
Lemma document_unfold :
  document = (opt (lit bom) ;;; st <- parse_ws state_new ;; st' <- (fun j => doc_loop (S (length (rest j))) st j) ;; eof ;;; ret st').
Proof. reflexivity. Qed.

(* what a line reads up to j, and the call that records it: nothing here depends on what is known of the state *)
Inductive line_read (st : pstate) (i j : input) : pstate -> Prop :=
| lr_comment sp : span_ (comment ;;; context line_ending) i = Ok sp j -> line_read st i j (on_ws st sp)
| lr_blank sp : span_ newline i = Ok sp j -> line_read st i j (on_ws st sp)
| lr_header ia h sp t st' :
    header_syntax ia i = Ok ((h, sp), t) j -> on_header ia st h t sp = COk st' -> line_read st i j st'
| lr_keyval p k v st' :
    parse_keyval i = Ok (p, (k, v)) j -> on_keyval_sp st p k v = COk st' -> line_read st i j st'.

(* a line, then the blanks before the next one *)
Lemma doc_line_read st i st1 i1 : doc_line st i = Ok st1 i1 ->
  exists st0 j sp, line_read st i j st0 /\ span_ ws j = Ok sp i1 /\ st1 = on_ws st0 sp.
Proof.
  rewrite doc_line_unfold. intro H. apply bind_inv in H as (b & j0 & H1 & H). apply peek_inv in H1 as [-> _].
  apply bind_inv in H as (st0 & j & H2 & H3). apply pmap_inv in H3 as (sp & H3 & ->).
  exists st0, j, sp. split; [|auto]. unfold line_p in H2.
  destruct (byte_eqb b COMMENT_START_SYMBOL).
  { apply cut_err_inv, pmap_inv in H2 as (sp0 & H2 & ->). apply lr_comment, H2. }
  destruct (byte_eqb b STD_TABLE_OPEN).
  { apply cut_err_inv, context_inv, bind_inv in H2 as (two & j1 & H1 & H2). apply peek_inv in H1 as [-> _].
    assert (G : exists ia, header ia st i = Ok st0 j) by (destruct (bytes_eqb two _); eauto).
    destruct G as (ia & G). rewrite header_eq in G. apply try_map_inv in G as ([[h sp0] t] & G & L).
    apply (lr_header st i j ia h sp0 t st0 G), lift_state_ok, L. }
  destruct (byte_eqb b LF || byte_eqb b CR).
  { apply pmap_inv in H2 as (sp0 & H2 & ->). apply lr_blank, H2. }
  apply cut_err_inv, try_map_inv in H2 as ([p [k v]] & H2 & L). apply (lr_keyval st i j p k v st0 H2), lift_state_ok, L.
Qed.

(* the same, as runs of the parsers of document.rs / table.rs on the state *)
Lemma line_read_parsers st i j st0 : line_read st i j st0 ->
  parse_comment st i = Ok st0 j \/ parse_newline st i = Ok st0 j \/ (exists ia, header ia st i = Ok st0 j) \/ keyval st i = Ok st0 j.
Proof.
  intros [sp E|sp E|ia h sp t st' E Eo|p k v st' E Eo].
  - left. unfold parse_comment, pmap. rewrite E. reflexivity.
  - right. left. unfold parse_newline, pmap. rewrite E. reflexivity.
  - right. right. left. exists ia. rewrite header_eq. unfold try_map. rewrite E, Eo. reflexivity.
  - right. right. right. unfold keyval, try_map. rewrite E, Eo. reflexivity.
Qed.
Lemma doc_line_nonempty st i st1 i1 : doc_line st i = Ok st1 i1 -> rest i <> [].
Proof.
  rewrite doc_line_unfold. unfold bind, peek, any. destruct (rest i); [discriminate|]. intros _. discriminate.
Qed.

(* ---- the loop -------------------------------------------------------------------------------------------------------- *)
(* `document` keeps whatever relation between cursor and state the lines keep *)
Section DocLoop.
  Variable Inv : input -> pstate -> Prop.
  Definition stI (q : pstate -> parser pstate) : Prop :=
    forall st i st' i', q st i = Ok st' i' -> Inv i st -> Inv i' st'.

  Lemma doc_line_keeps : stI parse_ws -> (forall st i j st0, line_read st i j st0 -> Inv i st -> Inv j st0) -> stI doc_line.
  Proof.
    intros Hws Hread st i st1 i1 E Hst. apply doc_line_read in E as (st0 & j & sp & Hr & Ew & ->).
    apply (Hws st0 j); [unfold parse_ws, pmap; rewrite Ew; reflexivity|]. exact (Hread _ _ _ _ Hr Hst).
  Qed.

  Hypothesis Hline : stI doc_line.
  Lemma doc_loop_keeps fuel : stI (doc_loop fuel).
  Proof.
    induction fuel as [|f IH]; intros st i st' i' H Hst; cbn [doc_loop] in H; [discriminate|].
    destruct (doc_line st i) as [s1 i1|? ?|? ?|?] eqn:E; try discriminate.
    - destruct (Nat.eqb _ _); [discriminate|]. eapply IH; [exact H|]. eapply Hline; eauto.
    - inversion H; subst. exact Hst.
  Qed.
  Lemma document_keeps i st i' : stI parse_ws ->
    (forall o j, opt (lit bom) i = Ok o j -> Inv j state_new) -> document i = Ok st i' -> Inv i' st.
  Proof.
    intros Hws H0 E. rewrite document_unfold in E.
    apply bind_inv in E as (o & j0 & E0 & E). apply bind_inv in E as (st0 & j1 & E1 & E).
    apply bind_inv in E as (st1 & j2 & E2 & E). apply bind_inv in E as (u & j3 & E3 & E). injection E as <- <-.
    unfold eof in E3. destruct (rest j2); inversion E3; subst j3.
    eapply doc_loop_keeps; [exact E2|]. eapply Hws; [exact E1|]. eapply H0, E0.
  Qed.
End DocLoop.

(* the same with the lines as runs of the five parsers of document.rs / table.rs *)
Section DocParsers.
  Variable Inv : input -> pstate -> Prop.
  Hypothesis Hws : stI Inv parse_ws.
  Hypothesis Hnl : stI Inv parse_newline.
  Hypothesis Hcm : stI Inv parse_comment.
  Hypothesis Hkv : stI Inv keyval.
  Hypothesis Hhd : forall ia, stI Inv (header ia).

  Lemma doc_line_stI : stI Inv doc_line.
  Proof.
    apply doc_line_keeps; [exact Hws|]. intros st i j st0 Hr Hst.
    destruct (line_read_parsers _ _ _ _ Hr) as [E|[E|[[ia E]|E]]]; [eapply Hcm|eapply Hnl|eapply Hhd|eapply Hkv]; eauto.
  Qed.
  Lemma document_stI i st i' :
    (forall o j, opt (lit bom) i = Ok o j -> Inv j state_new) -> document i = Ok st i' -> Inv i' st.
  Proof. apply (document_keeps Inv doc_line_stI), Hws. Qed.
End DocParsers.

(* ---- parse_document on success ---------------------------------------------------------------------------------------- *)
(* `document` runs to the end of the input and the last table is finalized *)
Lemma parse_document_run s d : parse_document s = POk d ->
  exists st i st',
    document (new_input s) = Ok st i /\ rest i = [] /\ finalize_table st = COk st'
    /\ d = mkDoc (st_root st') (match st_trailing st' with Some sp => raw_with_span sp | None => REmpty end).
Proof.
  unfold parse_document, parse_all. intro H.
  destruct ((a <- document ;; eof ;;; ret a) (new_input s)) as [st i|e j|e j|x] eqn:E; try discriminate.
  destruct (finalize_table st) as [st'| |] eqn:Ef; try discriminate. injection H as <-.
  apply bind_inv in E as (st0 & i0 & E & E'). apply bind_inv in E' as (u0 & i0' & Ee & E'). injection E' as -> _.
  unfold eof in Ee. destruct (rest i0) eqn:Rend; [|discriminate]. exists st, i0, st'. auto.
Qed.

(* in more detail: the byte-order mark, the leading blanks, the lines, and the last table finalized *)
Lemma parse_document_inv s d : parse_document s = POk d ->
  exists o i1 stw i2 stl i3 st',
    opt (lit bom) (new_input s) = Ok o i1 /\ parse_ws state_new i1 = Ok stw i2
    /\ doc_loop (S (length (rest i2))) stw i2 = Ok stl i3 /\ rest i3 = [] /\ finalize_table stl = COk st'
    /\ d = mkDoc (st_root st') (match st_trailing st' with Some sp => raw_with_span sp | None => REmpty end).
Proof.
  intro H. apply parse_document_run in H as (st & i & st' & E & Rend & Ef & ->). rewrite document_unfold in E.
  apply bind_inv in E as (o & i1 & Eb & E). apply bind_inv in E as (stw & i2 & Ew & E).
  apply bind_inv in E as (stl & i3 & El & E). apply bind_inv in E as (u & i4 & Ee & E). injection E as -> ->.
  unfold eof in Ee. destruct (rest i3); [|discriminate]. injection Ee as _ <-.
  exists o, i1, stw, i2, st, i3, st'. auto 10.
Qed.
