(* Proofs/NoPanicValue.v — C04, part 3: the value / array / inline-table knot (value.rs, array.rs,
   inline_table.rs) never panics.  Discharges
     P_depth_underflow   (RecursionCheck::exit: the sub-parser preserves `depth`, part of `mono`),
     P_out_of_fuel       in value_f (one unit of fuel per nesting level; a nested value starts after
                         the `[` / `{` of its parent, so `S (length text)` levels always suffice)
                         and in the separated(0..) loops of arrays and inline tables,
     P_key_path_empty    (inline_table.rs: path.pop().expect("grammar ensures at least 1")),
     P_other 2           (table_from_pairs only ever meets values: the parser stores `IValue` items). *)
From TV Require Import Base.Prelude Base.Winnow Gen.Consts.
From TV Require Import Model.Trivia Model.Tree Model.Parse.
From TV Require Import Proofs.NoPanicBase Proofs.NoPanicLex Proofs.NoPanicState.
From TV Require Import Proofs.DocumentOps.
Require Import Lia ZifyBool ZifyN ZifyNat.

(* sub-parsers already known to be safe everywhere are safe on any set of inputs *)
#[export] Hint Extern 9 (safe_on (shorter _) _) => (apply safe_safe_on; solve [auto 40 with np]) : np.

(* ---- check_recursion ------------------------------------------------------------------------------ *)
Lemma check_recursion_inv {A} (p : parser A) i a i' :
  check_recursion p i = Ok a i' ->
  exists i2 d, p (set_depth (S (depth i)) i) = Ok a i2 /\ depth i2 = S d /\ i' = set_depth d i2.
Proof.
  unfold check_recursion. cbv zeta. destruct (Nat.leb LIMIT _); [discriminate|].
  destruct (p (set_depth (S (depth i)) i)) as [x i2|? ?|? ?|?] eqn:E; try discriminate.
  destruct (depth i2) as [|d] eqn:D; [discriminate|]. intro H; inversion H; subst. eauto.
Qed.

Lemma monoC_check_recursion C {A} (p : parser A) : monoC C p -> monoC C (check_recursion p).
Proof.
  intros Hp i a i' H. apply check_recursion_inv in H as (i2 & d & E & D & ->).
  apply Hp in E as (t & R & Po & De & F). exists t. cbn [set_depth rest pos depth] in *.
  repeat split; auto. lia.
Qed.
Lemma progress_check_recursion {A} (p : parser A) : progress p -> progress (check_recursion p).
Proof.
  intros Hp i a i' H. apply check_recursion_inv in H as (i2 & d & E & D & ->). apply Hp in E. exact E.
Qed.
Lemma valP_check_recursion {A} (V : A -> Prop) (p : parser A) : valP V p -> valP V (check_recursion p).
Proof. intros Hp i a i' H. apply check_recursion_inv in H as (i2 & d & E & D & ->). eapply Hp, E. Qed.
(* RecursionCheck::exit never underflows: the sub-parser hands back the depth it was given *)
Lemma safe_check_recursion P {A} (p : parser A) :
  closed P -> mono p -> safe_on P p -> safe_on P (check_recursion p).
Proof.
  intros Pc Hm Hs i Hi. unfold check_recursion. cbv zeta. destruct (Nat.leb LIMIT _); [exact I|].
  assert (P1 : P (set_depth (S (depth i)) i)) by (eapply Pc; [exact Hi|cbn; lia]).
  specialize (Hs _ P1). destruct (p (set_depth (S (depth i)) i)) as [x i2|? ?|? ?|?] eqn:E; auto.
  apply Hm, ext_depth in E. cbn [set_depth depth] in E. rewrite E. exact I.
Qed.
#[export] Hint Resolve monoC_check_recursion progress_check_recursion safe_check_recursion : np.

(* a parser that first consumes a byte may hand a strictly shorter input to its continuation *)
Lemma safe_bind_shorter n {A B} (p : parser A) (f : A -> parser B) :
  mono p -> progress p -> safe p -> (forall a, safe_on (shorter n) (f a)) -> safe_on (shorter (S n)) (bind p f).
Proof.
  intros Hm Hg Hs Hf i Hi. unfold bind. specialize (Hs i I). destruct (p i) as [a i1|? ?|? ?|?] eqn:E; auto.
  apply Hf. apply Hg in E. unfold shorter in *. lia.
Qed.

(* ---- values stored by the parser: inline tables hold values only, hereditarily ----------------------- *)
Fixpoint vgood (v : value) : bool :=
  match v with
  | VInline items _ _ _ _ _ =>
    forallb (fun kv => match snd kv with IValue v' => vgood v' | _ => false end) items
  | _ => true
  end.
Definition igood (it : item) : bool := match it with IValue v => vgood v | _ => false end.
Definition items_good : kvs -> bool := kvs_all igood.

Lemma vgood_inline items pre im dt d sp : vgood (VInline items pre im dt d sp) = items_good items.
Proof. reflexivity. Qed.

(* inline_table.rs descend_path: `entry_format` never meets a non-value item *)
Lemma inline_insert_ok : forall path m dh pe k v,
  items_good m = true -> igood v = true ->
  match inline_insert m dh path pe k v with
  | COk m' => items_good m' = true | CErr _ => True | CPanic _ => False end.
Proof.
  induction path as [|pk ptl IH]; intros m dh pe k v Hm Hv; cbn [inline_insert].
  - destruct (Bool.eqb dh pe); [exact I|]. destruct (kv_get m (k_key k)); [exact I|].
    apply kvs_all_push; assumption.
  - destruct (kv_get m (k_key pk)) as [[k' it]|] eqn:G.
    + pose proof (kvs_all_get _ _ _ _ _ Hm G) as Hit. destruct it as [|val| |]; try discriminate Hit.
      destruct val as [s r d|vals tr c d sp|sub pre imp dt dec sp]; try exact I.
      destruct (negb imp); [exact I|]. cbn [igood] in Hit. rewrite vgood_inline in Hit.
      specialize (IH sub dt pe k v Hit Hv). destruct (inline_insert sub dt ptl pe k v); auto.
      apply kvs_all_set; [exact Hm|]. cbn [igood]. rewrite vgood_inline. exact IH.
    + specialize (IH [] true pe k v eq_refl Hv). destruct (inline_insert [] true ptl pe k v); auto.
      apply kvs_all_push; [exact Hm|]. cbn [igood]. rewrite vgood_inline. exact IH.
Qed.

Definition pair_good (x : list key * (key * item)) : Prop := igood (snd (snd x)) = true.

Lemma table_from_pairs_loop_d_ok : forall pairs m,
  items_good m = true -> Forall pair_good pairs ->
  match table_from_pairs_loop_d m pairs with
  | COk m' => items_good m' = true | CErr _ => True | CPanic _ => False end.
Proof.
  induction pairs as [|[path [k v]] tl IH]; intros m Hm Hp; cbn [table_from_pairs_loop_d]; [exact Hm|].
  inversion Hp as [|? ? Hx Htl]; subst. unfold pair_good in Hx; cbn [snd] in Hx.
  destruct (check_depth _); [exact I|].
  pose proof (inline_insert_ok path m false (match path with [] => true | _ => false end) k v Hm Hx) as H.
  destruct (inline_insert m false path _ k v) as [m'|c|st]; [apply IH; assumption|exact I|exact H].
Qed.

(* the span bookkeeping of dotted inline tables only rewrites spans *)
Lemma inline_set_spans_good : forall path m ve, items_good m = true -> items_good (inline_set_spans m path ve) = true.
Proof.
  induction path as [|k ptl IH]; intros m ve Hm; cbn [inline_set_spans]; [exact Hm|].
  destruct (kv_get m (k_key k)) as [[k' it]|] eqn:G; [|exact Hm].
  pose proof (kvs_all_get _ _ _ _ _ Hm G) as Hit. destruct it as [|val| |]; try exact Hm.
  destruct val as [s r d|vals tr c d sp|sub pre imp dt dec sp]; try exact Hm.
  cbn [igood] in Hit. rewrite vgood_inline in Hit.
  apply kvs_all_set; [exact Hm|]. cbn [igood]. rewrite vgood_inline. apply IH, Hit.
Qed.
Lemma inline_spans_pass_good : forall pairs m, items_good m = true -> items_good (inline_spans_pass m pairs) = true.
Proof.
  unfold inline_spans_pass. induction pairs as [|[path [k v]] tl IH]; intros m Hm; cbn [fold_left]; [exact Hm|].
  apply IH, inline_set_spans_good, Hm.
Qed.

Lemma table_from_pairs_ok pairs pre : Forall pair_good pairs ->
  match table_from_pairs pairs pre with
  | TmOk v => vgood v = true | TmErr _ => True | TmPanic _ => False end.
Proof.
  intro H. unfold table_from_pairs. pose proof (table_from_pairs_loop_d_ok pairs [] eq_refl H) as R.
  destruct (table_from_pairs_loop_d [] pairs); auto. rewrite vgood_inline. apply inline_spans_pass_good, R.
Qed.

Lemma vgood_decorate v p s : vgood (value_decorate v p s) = vgood v.
Proof. destruct v; reflexivity. Qed.
Lemma vgood_apply_raw v sp : vgood (apply_raw v sp) = vgood v.
Proof. unfold apply_raw. rewrite vgood_decorate. destruct v; reflexivity. Qed.

(* ---- one level of the knot --------------------------------------------------------------------------- *)
Definition Vg (v : value) : Prop := vgood v = true.

(* the scalar branches of value_body return what holds of every scalar value *)
Lemma valP_scalar (V : value -> Prop) {A} (p : parser A) (f : A -> scalar) :
  (forall s, V (scalar_value s)) -> valP V (pmap (fun x => scalar_value (f x)) p).
Proof. intro H. eapply valP_pmap; [apply valP_true|]. intros a _. apply H. Qed.

Section Knot.
  Variable value_rec : parser value.
  Variable n : nat.
  Hypothesis Hm : mono value_rec.
  Hypothesis Hs : safe_on (shorter n) value_rec.
  Hypothesis Hv : valP Vg value_rec.

  Lemma array_value_mono : mono (array_value value_rec). Proof. unfold array_value. np. Qed.
  Lemma array_value_safe : safe_on (shorter n) (array_value value_rec). Proof. unfold array_value. np. Qed.
  Local Hint Resolve array_value_mono array_value_safe : np.

  Lemma array_values_mono : mono (array_values value_rec). Proof. unfold array_values. np. Qed.
  Lemma array_values_safe : safe_on (shorter n) (array_values value_rec). Proof. unfold array_values. np. Qed.
  Lemma array_values_val : valP Vg (array_values value_rec).
  Proof.
    unfold array_values. apply valP_bind. intros [c|]; [apply valP_ret; reflexivity|].
    apply valP_bind; intro vals. apply valP_bind; intro comma. apply valP_bind; intro tr.
    apply valP_ret. reflexivity.
  Qed.
  Local Hint Resolve array_values_mono array_values_safe : np.

  Lemma array_mono : mono (array value_rec). Proof. unfold array. np. Qed.
  Lemma array_safe : safe_on (shorter (S n)) (array value_rec).
  Proof. unfold array. apply safe_bind_shorter; np. Qed.
  Lemma array_val : valP Vg (array value_rec).
  Proof.
    unfold array. apply valP_bind; intros _. eapply valP_bind_val; [apply valP_cut_err, array_values_val|].
    intros a Ha. apply valP_bind; intros _. apply valP_ret, Ha.
  Qed.

  Definition inline_kv_rhs : parser ((N * N) * value * (N * N)) :=
    cut_err (context (byte_ KEYVAL_SEP) ;;;
             pre <- span_ ws ;; v <- value_rec ;; suf <- span_ ws ;; ret (pre, v, suf)).
  Lemma inline_kv_rhs_mono : mono inline_kv_rhs. Proof. unfold inline_kv_rhs. np. Qed.
  Lemma inline_kv_rhs_safe : safe_on (shorter n) inline_kv_rhs. Proof. unfold inline_kv_rhs. np. Qed.
  Lemma inline_kv_rhs_val : valP (fun x => Vg (snd (fst x))) inline_kv_rhs.
  Proof.
    unfold inline_kv_rhs. apply valP_cut_err. apply valP_bind; intros _. apply valP_bind; intro pre.
    eapply valP_bind_val; [exact Hv|]. intros v Hgv. apply valP_bind; intro suf. apply valP_ret. exact Hgv.
  Qed.
  Lemma inline_keyval_eq :
    inline_keyval value_rec =
    (kp <- key_ ;;
     '(pre, v, suf) <- inline_kv_rhs ;;
     match pop_key kp with
     | None => fun _ => Panic P_key_path_empty
     | Some (path, k) => ret (path, (k, IValue (value_decorate v (raw_with_span pre) (raw_with_span suf))))
     end).
  Proof. reflexivity. Qed.
  Lemma inline_keyval_mono : mono (inline_keyval value_rec).
  Proof. rewrite inline_keyval_eq. pose proof inline_kv_rhs_mono. np. Qed.
  Lemma inline_keyval_safe : safe_on (shorter n) (inline_keyval value_rec).
  Proof.
    rewrite inline_keyval_eq. eapply safe_bind_val; [np|np|np|apply key_val|]. intros kp Hkp.
    destruct (pop_key_nonempty kp Hkp) as (path & k & ->).
    apply safe_bind; [np|apply inline_kv_rhs_mono|apply inline_kv_rhs_safe|]. intros [[pre v] suf]. np.
  Qed.
  Lemma inline_keyval_val : valP pair_good (inline_keyval value_rec).
  Proof.
    rewrite inline_keyval_eq. apply valP_bind; intro kp.
    eapply valP_bind_val; [apply inline_kv_rhs_val|]. intros [[pre v] suf] Hx. cbn [fst snd] in Hx.
    destruct (pop_key kp) as [[path k]|]; [|apply valP_const_panic]. apply valP_ret.
    unfold pair_good. cbn [snd igood]. rewrite vgood_decorate. exact Hx.
  Qed.
  Local Hint Resolve inline_keyval_mono inline_keyval_safe : np.

  Definition inline_kvs : parser (list (list key * (key * item)) * raw) :=
    kv <- separated0 (inline_keyval value_rec) (byte_ INLINE_TABLE_SEP) ;;
    p <- span_ ws ;;
    ret (kv, raw_with_span p).
  Lemma inline_kvs_mono : mono inline_kvs. Proof. unfold inline_kvs. np. Qed.
  Lemma inline_kvs_safe : safe_on (shorter n) inline_kvs. Proof. unfold inline_kvs. np. Qed.
  Lemma inline_kvs_val : valP (fun x => Forall pair_good (fst x)) inline_kvs.
  Proof.
    unfold inline_kvs. eapply valP_bind_val; [apply valP_separated0_all, inline_keyval_val|].
    intros kv Hkv. apply valP_bind; intro p. apply valP_ret. exact Hkv.
  Qed.
  Definition inline_body : parser value := try_map (fun '(kv, p) => table_from_pairs kv p) inline_kvs.
  Lemma inline_body_mono : mono inline_body. Proof. unfold inline_body. pose proof inline_kvs_mono. np. Qed.
  Lemma inline_body_safe : safe_on (shorter n) inline_body.
  Proof.
    unfold inline_body. eapply safe_try_map; [apply inline_kvs_safe|apply inline_kvs_val|].
    intros [kv p] Hkv s E. cbn [fst] in Hkv. pose proof (table_from_pairs_ok kv p Hkv) as R.
    rewrite E in R. exact R.
  Qed.
  Lemma inline_body_val : valP Vg inline_body.
  Proof.
    unfold inline_body. eapply valP_try_map; [apply inline_kvs_val|].
    intros [kv p] b Hkv E. cbn [fst] in Hkv. pose proof (table_from_pairs_ok kv p Hkv) as R.
    rewrite E in R. exact R.
  Qed.
  Lemma inline_table_eq :
    inline_table value_rec =
    (byte_ INLINE_TABLE_OPEN ;;; t <- cut_err inline_body ;; context (cut_err (byte_ INLINE_TABLE_CLOSE)) ;;; ret t).
  Proof. reflexivity. Qed.
  Lemma inline_table_mono : mono (inline_table value_rec).
  Proof. rewrite inline_table_eq. pose proof inline_body_mono. np. Qed.
  Lemma inline_table_safe : safe_on (shorter (S n)) (inline_table value_rec).
  Proof.
    rewrite inline_table_eq. pose proof inline_body_mono. pose proof inline_body_safe.
    apply safe_bind_shorter; np.
  Qed.
  Lemma inline_table_val : valP Vg (inline_table value_rec).
  Proof.
    rewrite inline_table_eq. apply valP_bind; intros _.
    eapply valP_bind_val; [apply valP_cut_err, inline_body_val|].
    intros a Ha. apply valP_bind; intros _. apply valP_ret, Ha.
  Qed.

  Lemma value_body_mono : mono (value_body value_rec).
  Proof. unfold value_body. pose proof array_mono. pose proof inline_table_mono. np. Qed.
  Lemma value_body_safe : safe_on (shorter (S n)) (value_body value_rec).
  Proof.
    unfold value_body. pose proof array_mono. pose proof inline_table_mono.
    pose proof array_safe. pose proof inline_table_safe. np.
  Qed.
  Lemma value_body_val : valP Vg (value_body value_rec).
  Proof.
    unfold value_body. apply valP_bind; intro b.
    repeat match goal with |- valP _ (if ?c then _ else _) => destruct c end;
      repeat apply valP_context; repeat apply valP_alt;
      try (apply valP_scalar; reflexivity); try apply valP_fail.
    - apply valP_check_recursion, array_val.
    - apply valP_check_recursion, inline_table_val.
  Qed.

  Lemma value_step_mono : mono (value_step value_rec).
  Proof. unfold value_step. pose proof value_body_mono. np. Qed.
  Lemma value_step_safe : safe_on (shorter (S n)) (value_step value_rec).
  Proof. unfold value_step. pose proof value_body_safe. np. Qed.
  Lemma value_step_val : valP Vg (value_step value_rec).
  Proof.
    unfold value_step. eapply valP_pmap; [apply valP_with_span, value_body_val|].
    intros [v sp] H. cbn [fst] in H. unfold Vg. rewrite vgood_apply_raw. exact H.
  Qed.
End Knot.

(* ---- tying the knot: induction on the fuel ------------------------------------------------------------ *)
Lemma value_f_all n : mono (value_f n) /\ safe_on (shorter n) (value_f n) /\ valP Vg (value_f n).
Proof.
  induction n as [|n (IH1 & IH2 & IH3)].
  - cbn [value_f]. repeat apply conj; [np| |apply valP_const_panic].
    intros i Hi. unfold shorter in Hi. lia.
  - change (value_f (S n)) with (value_step (value_f n)). repeat apply conj.
    + apply value_step_mono; assumption.
    + apply value_step_safe; assumption.
    + apply value_step_val; assumption.
Qed.

Lemma value_mono : mono value_.
Proof. intros i a i' H. eapply (proj1 (value_f_all _)), H. Qed.
(* fuel_sufficient for value_: S (length text) levels of nesting are never exhausted *)
Lemma value_safe : safe value_.
Proof. intros i _. unfold value_. apply (proj1 (proj2 (value_f_all _))). unfold shorter. lia. Qed.
Lemma value_val : valP Vg value_.
Proof. intros i a i' H. eapply (proj2 (proj2 (value_f_all _))), H. Qed.
#[export] Hint Resolve value_mono value_safe : np.
