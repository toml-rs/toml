(* Proofs/C13TextTwin.v — C13 at the level of text, the routes through toml::Value / toml::Table on serialized text:
   the tree a text parses to equals the tree the serializer wrote only up to the order of table entries and the payload
   of NaNs (Props/C07text.v tv_equiv).  toml::Value's visitor sorts tables, so the order is gone after `to_toml_value`;
   what remains is the payload of NaNs (`feq`), which `tv_de` does not see (`sval_eq`). *)
From TV Require Import Base.Prelude Spec.SerdeData Model.Ser Model.De Model.SerdeRoutes.
From TV Require Import Proofs.SerdeRTFmt Proofs.SerdeRTBase Proofs.SerdeRTBTree Proofs.SerdeRTTv Proofs.RoutesRel
  Proofs.RoutesConv Proofs.RoutesTwins Proofs.RoutesTop Proofs.SerDocDe.
From Coq Require Import Permutation Sorted.
Require Import Lia.
From TV Require Import Base.ListFacts.

(* ---- sval_eq is transitive ------------------------------------------------------------------------------------ *)
Lemma f32_eq_trans a b c : f32_eq a b -> f32_eq b c -> f32_eq a c.
Proof. intros [-> | [H1 H2]] [-> | [H3 H4]]; [left; reflexivity|right; auto|right; auto|right; auto]. Qed.

Lemma Forall2_trans_l {A} (R : A -> A -> Prop) l :
  Forall (fun x => forall y z, R x y -> R y z -> R x z) l -> forall m r, Forall2 R l m -> Forall2 R m r -> Forall2 R l r.
Proof.
  induction 1 as [|x l Hx _ IH]; intros m r F1 F2; inversion F1; subst; inversion F2; subst; constructor; eauto.
Qed.

Definition pair_eq (p q : sval * sval) : Prop := sval_eq (fst p) (fst q) /\ sval_eq (snd p) (snd q).

Theorem sval_eq_trans : forall a y0 z0, sval_eq a y0 -> sval_eq y0 z0 -> sval_eq a z0.
Proof.
  induction a using sval_ind2; intros y0 z0 H1 H2; inversion H1; subst; inversion H2; subst; try (constructor; fail).
  - constructor. eapply f64_eq_trans; eassumption.
  - constructor. eapply f32_eq_trans; eassumption.
  - constructor. eapply IHa; eassumption.
  - constructor. eapply (Forall2_trans_l sval_eq vs); eassumption.
  - (* maps *)
    rename H3 into P1, H4 into F1, H5 into P2, H6 into F2.
    destruct (Forall2_perm_l _ _ _ P1 _ F2) as (gs2 & P3 & F3).
    eapply eq_map; [eapply Permutation_trans; [exact P2|exact P3]|].
    apply (Forall2_trans_l pair_eq es) with (m := fs'); [|exact F1|exact F3].
    eapply Forall_impl; [|exact H]. intros [k v] [Hk Hv] [k1 v1] [k2 v2] [A1 A2] [B1 B2]. cbn [fst snd] in *.
    split; [eapply Hk; eassumption|eapply Hv; eassumption].
  - constructor. eapply (Forall2_trans_l sval_eq vs); eassumption.
  - constructor. eapply IHa; eassumption.
  - constructor. eapply IHa; eassumption.
Qed.

(* ---- the same tree up to the payload of NaNs ------------------------------------------------------------------- *)
Inductive feq : tomlval -> tomlval -> Prop :=
| fq_str s : feq (VStr s) (VStr s)
| fq_int z : feq (VInt z) (VInt z)
| fq_float a b : f64_eq a b -> feq (VFloat a) (VFloat b)
| fq_bool b : feq (VBool b) (VBool b)
| fq_dt d : feq (VDatetime d) (VDatetime d)
| fq_arr xs ys : Forall2 feq xs ys -> feq (VArr xs) (VArr ys)
| fq_tab es fs : Forall2 (fun p q => fst p = fst q /\ feq (snd p) (snd q)) es fs -> feq (VTab es) (VTab fs).
Definition efeq (p q : bytes * tomlval) : Prop := fst p = fst q /\ feq (snd p) (snd q).

Lemma efeq_keys es fs : Forall2 efeq es fs -> map fst es = map fst fs.
Proof. induction 1 as [|p q l l' [H _] _ IH]; [reflexivity|]. cbn [map]. rewrite H, IH. reflexivity. Qed.

Lemma tab_get_feq k es fs : Forall2 efeq es fs ->
  match tab_get k es with
  | Some x => exists x', tab_get k fs = Some x' /\ feq x x'
  | None => tab_get k fs = None
  end.
Proof.
  induction 1 as [|[k1 x1] [k2 x2] l l' [Hk Hx] _ IH]; [reflexivity|]. cbn [fst snd] in *. subst k2. cbn [tab_get].
  destruct (bytes_eqb k1 k); [eauto|exact IH].
Qed.

(* what `tv_de` at a type makes of two trees that differ in NaN payloads only *)
Definition Pt : ty -> Prop := related_at False True tv_de tv_de feq sval_eq.
Definition Qv (var : variant) : Prop := forall y y', feq y y' -> follows sval_eq (tv_de_payload var y) (tv_de_payload var y').

Lemma index_keys_feq : forall es fs i, Forall2 efeq es fs ->
  match index_keys i es with
  | Some xs => exists xs', index_keys i fs = Some xs' /\ Forall2 feq xs xs'
  | None => index_keys i fs = None
  end.
Proof.
  intros es fs i F. revert i. induction F as [|[k1 x1] [k2 x2] l l' [Hk Hx] _ IH]; intro i; [exists []; split; [reflexivity|constructor]|].
  cbn [fst snd] in *. subst k2. cbn [index_keys]. destruct (parse_usize k1) as [j|]; [|reflexivity]. destruct (j =? i)%N; [|reflexivity].
  specialize (IH (i + 1)%N). destruct (index_keys (i + 1) l) as [xs|].
  - destruct IH as (xs' & -> & E). cbn [optmap]. eexists. split; [reflexivity|constructor; assumption].
  - rewrite IH. reflexivity.
Qed.

(* maps: equal keys, equal values up to sval_eq *)
Definition keq (p q : sval * sval) : Prop := fst p = fst q /\ sval_eq (snd p) (snd q).

Lemma smap_insert_keq k v v' : sval_eq v v' -> forall es es', Forall2 keq es es' -> Forall2 keq (smap_insert k v es) (smap_insert k v' es').
Proof.
  intros Hv es es' F. induction F as [|[k1 v1] [k2 v2] l l' [Hk Hx] Fl IH]; cbn [smap_insert].
  - constructor; [split; [reflexivity|exact Hv]|constructor].
  - cbn [fst snd] in *. subst k2. destruct (sval_beq k1 k).
    + constructor; [split; [reflexivity|exact Hv]|exact Fl].
    + constructor; [split; [reflexivity|exact Hx]|exact IH].
Qed.

Lemma smap_of_pairs_keq ps ps' : Forall2 keq ps ps' -> Forall2 keq (smap_of_pairs ps) (smap_of_pairs ps').
Proof.
  intro F. apply (fold_left_rel (Forall2 keq) keq _ _) with (l := ps) (l' := ps'); [|exact F|constructor].
  intros a b [k1 v1] [k2 v2] Hab [Hk Hv]. cbn [fst snd] in *. subst k2. apply smap_insert_keq; assumption.
Qed.

Lemma keq_map_eq es es' : Forall2 keq es es' -> sval_eq (SMap es) (SMap es').
Proof.
  intro F. apply (eq_map es es' es'); [apply Permutation_refl|]. eapply Forall2_impl; [|exact F].
  intros [k v] [k' v'] [Hk Hv]. cbn [fst snd] in *. subst k'. split; [apply sval_eq_refl|exact Hv].
Qed.

(* ---- tv_de does not see the payload of a NaN ------------------------------------------------------------------- *)
Lemma dt_feq y y' : feq y y' -> tv_de_datetime y' = tv_de_datetime y.
Proof.
  intro F. inversion F as [s|z|a b Hab|b|d|xs ys Fx|es fs Fe]; subst; try reflexivity.
  destruct Fe as [|[k x] [k' x'] l l' [Hk Hx] Fl]; [reflexivity|]. cbn [fst snd] in *. subst k'.
  destruct Fl; [|reflexivity]. cbn [tv_de_datetime]. destruct (bytes_eqb k DT_FIELD); [|reflexivity]. inversion Hx; subst; reflexivity.
Qed.

Lemma empty_feq y y' : feq y y' -> empty_container y' = empty_container y.
Proof. intro F. inversion F as [s|z|a b Hab|b|d|xs ys Fx|es fs Fe]; subst; try reflexivity; [destruct Fx; reflexivity|destruct Fe; reflexivity]. Qed.

Lemma F2_length {A B} (R : A -> B -> Prop) l l' : Forall2 R l l' -> length l' = length l.
Proof. induction 1; cbn [length]; congruence. Qed.

Lemma seq_result (P : list sval -> sval) (HP : forall a b, Forall2 sval_eq a b -> sval_eq (P a) (P b)) r r' vs :
  (exists vs', r' = Ok vs' /\ Forall2 sval_eq vs vs') -> r = Ok vs -> forall v, rmap P r = Ok v -> exists v', rmap P r' = Ok v' /\ sval_eq v v'.
Proof. intros (vs' & -> & E) -> v H. cbn [rmap] in *. injection H as <-. eexists. split; [reflexivity|apply HP, E]. Qed.

Lemma feq_scalar t : scalar_ty t = true -> Pt t.
Proof.
  intros St y y' F. destruct t; try discriminate St; inversion F as [s|z|a b Hab|b|d|xs ys Fx|es fs Fe]; subst;
    try (apply rr_refl, sval_eq_refl); try exact I; destruct w; try exact I; constructor; [|exact Hab].
  destruct Hab as [-> | [N1 N2]]; [left; reflexivity|right; split; apply narrow32_nan; assumption].
Qed.

(* visit_seq, all of it read *)
Lemma feq_pos_read {A} (proj : A -> ty) (C : list sval -> sval) l xs ys :
  (forall a b, Forall2 sval_eq a b -> sval_eq (C a) (C b)) -> Forall (fun a => Pt (proj a)) l -> Forall2 feq xs ys ->
  follows sval_eq (rmap C (all_read (de_pos tv_de proj l xs))) (rmap C (all_read (de_pos tv_de proj l ys))).
Proof.
  intros HC Hl F. apply (rr_rmap False True (Forall2 sval_eq)); [|exact HC].
  apply (rr_all_read False True feq sval_eq). exact (rr_pos False True tv_de tv_de feq sval_eq proj l Hl xs ys F).
Qed.

Lemma feq_tuple_payload ts xs ys : Forall Pt ts -> Forall2 feq xs ys ->
  follows sval_eq (if Nat.eqb (length xs) (length ts) then rmap SSeq (all_read (de_pos tv_de (fun t' => t') ts xs)) else Err EDe)
                  (if Nat.eqb (length ys) (length ts) then rmap SSeq (all_read (de_pos tv_de (fun t' => t') ts ys)) else Err EDe).
Proof.
  intros Hts F. rewrite (F2_length _ _ _ F). destruct (Nat.eqb (length xs) (length ts)); [|exact I].
  exact (feq_pos_read (fun t' => t') SSeq ts xs ys eq_seq Hts F).
Qed.

Lemma feq_struct_map fs0 es es' : Forall (fun ft => Pt (snd ft)) fs0 -> Forall2 efeq es es' ->
  follows sval_eq (rmap SRec (de_struct_map tv_de fs0 es)) (rmap SRec (de_struct_map tv_de fs0 es')).
Proof.
  intros HP F. unfold de_struct_map, dup_field_hit. rewrite <- (efeq_keys es es' F). destruct (negb _); [exact I|].
  apply (rr_rmap False True (Forall2 sval_eq)); [|intros a b; apply eq_rec].
  apply (rr_fields_map False True tv_de tv_de feq sval_eq); [constructor|intro f; apply tab_get_feq; exact F|exact HP].
Qed.

Lemma feq_map_entries kt vt es fs : Pt vt -> Forall2 efeq es fs ->
  follows (Forall2 keq) (tvd_entries kt vt es) (tvd_entries kt vt fs).
Proof.
  intros HP F. apply rr_mapM. eapply Forall2_impl; [|exact F]. intros [k x] [k' x'] [Hk Hx]. cbn [fst snd] in *. subst k'.
  apply (rr_rbind False True eq); [apply rr_refl; reflexivity|]. intros a b <-.
  apply (rr_rmap False True sval_eq); [exact (HP x x' Hx)|]. intros v v' Hv. split; [reflexivity|exact Hv].
Qed.

Theorem tv_de_feq : forall t, Pt t.
Proof.
  induction t using ty_ind2 with (Q := Qv); unfold Pt, Qv, related_at in *; try (apply feq_scalar; reflexivity).
  - (* TDatetime *) intros y y' F. cbn [tv_de]. rewrite (dt_feq y y' F). apply rr_refl, sval_eq_refl.
  - (* TOpt *) intros y y' F. rewrite !td_opt. apply (rr_rmap False True sval_eq); [exact (IHt y y' F)|intros a b; apply eq_some].
  - (* TSeq *) intros y y' F. inversion F as [s|z|a b Hab|b|d|xs ys Fx|es fs Fe]; subst; try exact I. rewrite !td_seq.
    apply (rr_rmap False True (Forall2 sval_eq)); [|intros a b; apply eq_seq].
    exact (rr_seq False True tv_de tv_de feq sval_eq t xs ys IHt Fx).
  - (* TTuple *) intros y y' F. inversion F as [s|z|a b Hab|b|d|xs ys Fx|es fs Fe]; subst; try exact I.
    exact (feq_pos_read (fun t' => t') SSeq ts xs ys eq_seq H Fx).
  - (* TMap *) intros y y' F. inversion F as [s|z|a b Hab|b|d|xs ys Fx|es fs Fe]; subst; try exact I. rewrite !td_map.
    apply (rr_rmap False True (Forall2 keq)); [exact (feq_map_entries t1 t2 es fs IHt2 Fe)|].
    intros ps ps' E. apply keq_map_eq, smap_of_pairs_keq, E.
  - (* TStruct *) intros y y' F. inversion F as [s|z|a b Hab|b|d|xs ys Fx|es fs' Fe]; subst; try exact I.
    + exact (feq_pos_read (fun ft => snd ft) SRec fs xs ys eq_rec H Fx).
    + exact (feq_struct_map fs es fs' H Fe).
  - (* TNewtype *) intros y y' F. rewrite !td_newtype. apply (rr_rmap False True sval_eq); [exact (IHt y y' F)|intros a b; apply eq_newtype].
  - (* TTupleStruct *) intros y y' F. inversion F as [s|z|a b Hab|b|d|xs ys Fx|es fs Fe]; subst; try exact I.
    exact (feq_pos_read (fun t' => t') SSeq ts xs ys eq_seq H Fx).
  - (* TEnum *) intros y y' F. inversion F as [s|z|a b Hab|b|d|xs ys Fx|es fs Fe]; subst; try exact I.
    + apply rr_refl, sval_eq_refl.
    + destruct Fe as [|[k x] [k' x'] l l' [Hk Hx] Fl]; [exact I|]. cbn [fst snd] in *. subst k'. destruct Fl; [|destruct l; exact I].
      rewrite !td_enum_tab. apply rr_find_name. eapply Forall_impl; [|exact H]. intros [vn var] Hv i. cbn [snd] in *.
      apply (rr_rmap False True sval_eq); [exact (Hv x x' Hx)|intros a b; apply eq_variant].
  - (* VUnit *) intros y y' F. cbn [tv_de_payload]. rewrite (empty_feq y y' F). apply rr_refl, sval_eq_refl.
  - (* VNewtype *) intros y y' F. exact (IHt y y' F).
  - (* VTuple *) intros y y' F. inversion F as [s|z|a b Hab|b|d|xs ys Fx|es fs Fe]; subst; try exact I.
    + exact (feq_tuple_payload ts xs ys H Fx).
    + rewrite !tdp_tuple_tab. pose proof (index_keys_feq es fs 0 Fe) as G.
      destruct (index_keys 0 es) as [xs|]; [destruct G as (xs' & -> & Fx)|rewrite G; exact I].
      exact (feq_tuple_payload ts xs xs' H Fx).
  - (* VStruct *) intros y y' F. inversion F as [s|z|a b Hab|b|d|xs ys Fx|es fs' Fe]; subst; try exact I.
    + exact (feq_pos_read (fun ft => snd ft) SRec fs xs ys eq_rec H Fx).
    + exact (feq_struct_map fs es fs' H Fe).
Qed.

Corollary tv_de_feq_ok t y y' v : feq y y' -> tv_de t y = Ok v -> exists v', tv_de t y' = Ok v' /\ sval_eq v v'.
Proof. intro F. exact (follows_ok _ _ _ _ (tv_de_feq t y y' F)). Qed.


(* to_toml_value forgets the order of table entries *)
(* sorted tables with the same entries are equal *)
Lemma bsorted_ext : forall l l', bsorted l -> bsorted l' -> (forall kx, In kx l <-> In kx l') -> l = l'.
Proof.
  induction l as [|p l IH]; intros l' Hs Hs' Hm.
  - destruct l' as [|q l']; [reflexivity|]. exfalso. apply (proj2 (Hm q)). left. reflexivity.
  - destruct l' as [|q l']; [exfalso; apply (proj1 (Hm p)); left; reflexivity|].
    apply StronglySorted_inv in Hs as [Hs Hp]. apply StronglySorted_inv in Hs' as [Hs' Hq]. rewrite Forall_forall in Hp, Hq.
    assert (Epq : p = q).
    { destruct (proj1 (Hm p) (or_introl eq_refl)) as [E | Hin]; [symmetry; exact E|].
      destruct (proj2 (Hm q) (or_introl eq_refl)) as [E | Hin']; [exact E|].
      exfalso. pose proof (Hq _ Hin) as L1. pose proof (Hp _ Hin') as L2. unfold key_lt in *.
      pose proof (bytes_ltb_trans _ _ _ L1 L2) as L3. rewrite bytes_ltb_irrefl in L3. discriminate. }
    subst q. f_equal. apply IH; [exact Hs|exact Hs'|]. intro kx. split; intro Hin.
    + destruct (proj1 (Hm kx) (or_intror Hin)) as [E | H']; [|exact H']. subst kx. exfalso. pose proof (Hp _ Hin) as L. unfold key_lt in L.
      rewrite bytes_ltb_irrefl in L. discriminate.
    + destruct (proj2 (Hm kx) (or_intror Hin)) as [E | H']; [|exact H']. subst kx. exfalso. pose proof (Hq _ Hin) as L. unfold key_lt in L.
      rewrite bytes_ltb_irrefl in L. discriminate.
Qed.

Lemma btree_perm ps ps' : Permutation ps ps' -> NoDup (map fst ps) -> btree_of_pairs ps = btree_of_pairs ps'.
Proof.
  intros P Hnd. assert (Hnd' : NoDup (map fst ps')) by (eapply Permutation_NoDup; [apply Permutation_map, P|exact Hnd]).
  destruct (btree_of_pairs_spec ps Hnd) as [S1 M1]. destruct (btree_of_pairs_spec ps' Hnd') as [S2 M2].
  apply bsorted_ext; [exact S1|exact S2|]. intro kx. rewrite M1, M2. split; intro H; [apply (Permutation_in _ P), H|apply (Permutation_in _ (Permutation_sym P)), H].
Qed.

Lemma btree_insert_efeq k x x' : feq x x' -> forall acc acc', Forall2 efeq acc acc' -> Forall2 efeq (btree_insert k x acc) (btree_insert k x' acc').
Proof.
  intros Hx acc acc' F. induction F as [|[k1 y1] [k2 y2] l l' [Hk Hy] Fl IH]; cbn [btree_insert].
  - constructor; [split; [reflexivity|exact Hx]|constructor].
  - cbn [fst snd] in *. subst k2. destruct (bytes_eqb k1 k).
    + constructor; [split; [reflexivity|exact Hx]|exact Fl].
    + destruct (bytes_ltb k k1).
      * constructor; [split; [reflexivity|exact Hx]|]. constructor; [split; [reflexivity|exact Hy]|exact Fl].
      * constructor; [split; [reflexivity|exact Hy]|exact IH].
Qed.

Lemma btree_efeq ps ps' : Forall2 efeq ps ps' -> Forall2 efeq (btree_of_pairs ps) (btree_of_pairs ps').
Proof.
  intro F. apply (fold_left_rel (Forall2 efeq) efeq _ _) with (l := ps) (l' := ps'); [|exact F|constructor].
  intros a b [k1 v1] [k2 v2] Hab [Hk Hv]. cbn [fst snd] in *. subst k2. apply btree_insert_efeq; assumption.
Qed.

Definition conv1 (kx : bytes * tomlval) : result (bytes * tomlval) := rmap (fun y' => (fst kx, y')) (to_toml_value (snd kx)).

Lemma feq_refl : forall y, feq y y.
Proof.
  induction y using tomlval_ind2; try (constructor; fail).
  - constructor. left. reflexivity.
  - constructor. induction H; constructor; assumption.
  - constructor. induction H as [|[k x] l Hx _ IH]; constructor; [split; [reflexivity|exact Hx]|exact IH].
Qed.

Definition Cv (x : tomlval) : Prop :=
  forall x' y, tv_equiv x x' -> tunnel_free x = true -> to_toml_value x = Ok y -> exists y', to_toml_value x' = Ok y' /\ feq y y'.

Theorem conv_equiv : forall x, Cv x.
Proof.
  induction x using tomlval_ind2; unfold Cv in *; intros x' y E Ht Hy.
  - apply equiv_str in E. subst x'. exists y. split; [exact Hy|apply feq_refl].
  - apply equiv_int in E. subst x'. exists y. split; [exact Hy|apply feq_refl].
  - inversion E; subst. cbn [to_toml_value] in *. injection Hy as <-. eexists. split; [reflexivity|constructor; assumption].
  - apply equiv_bool in E. subst x'. exists y. split; [exact Hy|apply feq_refl].
  - apply equiv_dt in E. subst x'. exists y. split; [exact Hy|apply feq_refl].
  - (* arrays *) apply equiv_arr in E as (ys & -> & F). rewrite ttv_arr in *. apply rmap_ok in Hy as (rs & Hrs & ->). cbn [tunnel_free] in Ht.
    assert (G : exists rs', mapM to_toml_value ys = Ok rs' /\ Forall2 feq rs rs').
    { revert rs Hrs. induction F as [|a b l l' Hab _ IH]; intros rs Hrs; cbn [mapM] in *.
      - injection Hrs as <-. exists []. split; [reflexivity|constructor].
      - inversion H as [|? ? Ha Hl]; subst. cbn [forallb] in Ht. apply andb_true_iff in Ht as [Ht1 Ht2].
        apply rbind_ok in Hrs as (c & Hc & Hrs). apply rbind_ok in Hrs as (cs & Hcs & Hrs). injection Hrs as <-.
        destruct (Ha _ _ Hab Ht1 Hc) as (c' & -> & Ec). destruct (IH Hl Ht2 _ Hcs) as (cs' & -> & Ecs). cbn [rbind].
        eexists. split; [reflexivity|constructor; assumption]. }
    destruct G as (rs' & -> & Ers). cbn [rmap]. eexists. split; [reflexivity|constructor; exact Ers].
  - (* tables *) apply tab_equiv_inv in E as (es' & fs & -> & P & F). cbn [tunnel_free] in Ht.
    assert (Hkeys : forall k, In k (map fst es) -> bytes_eqb k DT_FIELD = false).
    { intros k Hin. apply in_map_iff in Hin as ([k0 x0] & <- & Hin). rewrite forallb_forall in Ht. specialize (Ht _ Hin). cbn [fst snd] in *.
      apply andb_true_iff in Ht as [Hk _]. apply negb_true_iff in Hk. exact Hk. }
    assert (Hfp : first_key_plain es = true).
    { destruct es as [|[k x] es0]; [reflexivity|]. cbn [first_key_plain]. rewrite (Hkeys k (or_introl eq_refl)). reflexivity. }
    assert (Pk : Permutation (map fst es) (map fst fs)) by (rewrite <- (equiv_keys _ _ F); apply Permutation_map, P).
    assert (Hfp' : first_key_plain fs = true).
    { destruct fs as [|[k x] fs0]; [reflexivity|]. cbn [first_key_plain]. rewrite (Hkeys k); [reflexivity|].
      apply (Permutation_in _ (Permutation_sym Pk)). left. reflexivity. }
    rewrite (ttv_tab_plain es Hfp) in Hy. rewrite (ttv_tab_plain fs Hfp'). apply rbind_ok in Hy as (es1 & Hes1 & Hy).
    destruct (nodup_bytes (map fst es1)) eqn:Hnd; [|discriminate]. injection Hy as <-.
    unfold conv_entries in *. fold conv1 in *. apply mapM_ok in Hes1.
    (* the results along the permutation *)
    destruct (Forall2_perm_l _ _ _ P _ Hes1) as (es1' & P1 & F1).
    assert (G : exists fs1, mapM conv1 fs = Ok fs1 /\ Forall2 efeq es1' fs1).
    { assert (Hin' : forall e, In e es' -> In e es) by (intros e He; apply (Permutation_in _ (Permutation_sym P)), He).
      clear P P1 Pk Hfp'. revert es1' F1. induction F as [|a b l l' [Hk Hab] _ IH]; intros es1' F1; inversion F1 as [|? r ? rl Hr Frl]; subst; cbn [mapM].
      - exists []. split; [reflexivity|constructor].
      - rewrite Forall_forall in H. pose proof (H a (Hin' a (or_introl eq_refl))) as Ha. unfold conv1 in Hr. apply rmap_ok in Hr as (ya & Hya & ->).
        assert (Hta : tunnel_free (snd a) = true).
        { rewrite forallb_forall in Ht. specialize (Ht a (Hin' a (or_introl eq_refl))). apply andb_true_iff in Ht as [_ Ht]. exact Ht. }
        destruct (Ha _ _ Hab Hta Hya) as (yb & Eyb & Eab). unfold conv1 at 1. rewrite Eyb. cbn [rmap rbind].
        destruct (IH (fun e He => Hin' e (or_intror He)) rl Frl) as (fs1 & -> & Efs). cbn [rbind].
        eexists. split; [reflexivity|]. constructor; [split; [cbn [fst]; exact Hk|exact Eab]|exact Efs]. }
    destruct G as (fs1 & -> & Efs). cbn [rbind].
    assert (Ek1 : map fst es1' = map fst fs1) by (apply efeq_keys, Efs).
    assert (Hnd1 : NoDup (map fst es1)) by (apply nodup_bytes_NoDup, Hnd).
    assert (Hnd' : nodup_bytes (map fst fs1) = true).
    { apply nodup_bytes_NoDup. rewrite <- Ek1. eapply Permutation_NoDup; [apply Permutation_map, P1|exact Hnd1]. }
    rewrite Hnd'. eexists. split; [reflexivity|]. constructor. rewrite (btree_perm es1 es1' P1 Hnd1). apply btree_efeq, Efs.
Qed.

(* on the tree a text route serializes, read back up to tv_equiv, the routes through toml::Value return the value *)
From TV Require Import Model.SerDoc.

Lemma first_key_equiv es x' : tv_equiv (VTab es) x' -> tunnel_free (VTab es) = true -> exists fs, x' = VTab fs /\ first_key_plain fs = true.
Proof.
  intros E Ht. apply tab_equiv_inv in E as (es' & fs & -> & P & F). exists fs. split; [reflexivity|].
  destruct fs as [|[k x] fs0]; [reflexivity|]. cbn [first_key_plain]. apply negb_true_iff.
  assert (Pk : Permutation (map fst es) (map fst ((k, x) :: fs0))) by (rewrite <- (equiv_keys _ _ F); apply Permutation_map, P).
  assert (Hin : In k (map fst es)) by (apply (Permutation_in _ (Permutation_sym Pk)); left; reflexivity).
  apply in_map_iff in Hin as ([k0 x0] & <- & Hin). cbn [tunnel_free] in Ht. rewrite forallb_forall in Ht. specialize (Ht _ Hin). cbn [fst snd] in *.
  apply andb_true_iff in Ht as [Hk _]. apply negb_true_iff in Hk. exact Hk.
Qed.

(* the tree of a text route, read by toml::Value's visitor, then by try_into *)
Lemma text_route_value_tree r0 ty v out : has_type v ty -> ser_text r0 ty v = Ok out -> tunnel_free out = true ->
  exists y v1, to_toml_value out = Ok y /\ tv_de ty y = Ok v1 /\ sval_eq v v1 /\ exists es, out = VTab es.
Proof.
  intros Hty Hser Hf.
  assert (Hedit : ser_edit_root ty v = Ok out -> exists y v1, to_toml_value out = Ok y /\ tv_de ty y = Ok v1 /\ sval_eq v v1 /\ exists es, out = VTab es).
  { intro H. unfold ser_edit_root in H. apply rbind_ok in H as (x & Hx & Hr). unfold root_table in Hr. destruct x; try discriminate. injection Hr as <-.
    destruct (try_from_twin ty v (VTab es) Hty Hx Hf) as (y & C1 & T).
    destruct (tv_roundtrip_supported ty v y Hty (ser_ok_supported ty v _ Hty Hx) T) as (v1 & D & E).
    exists y, v1. split; [exact C1|]. split; [exact D|]. split; [exact E|eauto]. }
  destruct r0; cbn [ser_text] in Hser; try apply toml_root_is_edit in Hser; exact (Hedit Hser).
Qed.

Theorem text_route_value_back r0 ty v out x' : has_type v ty -> ser_text r0 ty v = Ok out -> tunnel_free out = true -> tv_equiv out x' ->
  exists y' v2, to_toml_value x' = Ok y' /\ to_toml_table x' = Ok y' /\ tv_de ty y' = Ok v2 /\ sval_eq v v2.
Proof.
  intros Hty Hser Hf E. destruct (text_route_value_tree r0 ty v out Hty Hser Hf) as (y & v1 & C & D & Ev & es & ->).
  destruct (conv_equiv (VTab es) x' y E Hf C) as (y' & C' & Fy). destruct (tv_de_feq_ok ty y y' v1 Fy D) as (v2 & D' & Ev').
  exists y', v2. split; [exact C'|]. split; [|split; [exact D'|eapply sval_eq_trans; eassumption]].
  destruct (first_key_equiv es x' E Hf) as (fs & -> & Hfp). rewrite plain_root_same; [exact C'|].
  unfold plain_root. rewrite (ttv_nodup fs y' Hfp C'). exact Hfp.
Qed.
