(* Proofs/WFParseState.v — parsed documents are well-formed, part 3: the parse state (state.rs).
   `twl top h n t`: the slot-level half of Spec/WF.v `tbl_wf` + `tbl_lim` on the despanned table (decor is legal trivia,
   keys are fit for lines, values are well-formed and within the limits, a dotted table is implicit, header tables
   lie less than LIMIT deep), WITHOUT the clauses on key uniqueness and on which tables print something (those come
   from C09's simulation and from the specification side, Proofs/WFParseFlags.v).  It is kept by descend_path
   (`with_table_at`) and by on_keyval / finalize_table / start_table / start_array_table. *)
From TV Require Import Base.Prelude Gen.Consts Spec.WF.
From TV Require Import Model.Tree Model.Parse Model.Document.
From TV Require Import Proofs.PrintBackBase Proofs.PrintBackDAll.
From TV Require Import Proofs.WFParseBase Proofs.WFParseValue.
From TV Require Import Proofs.KvFacts.
From TV Require Import Proofs.DocumentOps.
Require Import Lia NArith.

Lemma set_dotted_spans_hframe t p e : hframe t (set_dotted_spans t p e).
Proof.
  destruct p as [|k ptl]; [apply hframe_refl|].
  destruct (set_dotted_spans_cons t k ptl e) as [->|(k0 & sub & sp & _ & ->)]; [apply hframe_refl|apply hframe_set_items].
Qed.

Section PS.
  Variable s : bytes.

  (* a key fit for a key/value line or a header *)
  Definition kline (k : key) : Prop := key_wf true (tkey s k).

  Lemma ws_lines_raw r : raw_ok SWs r -> raw_ok SLines r.
  Proof. destruct r; cbn [raw_ok slot_ok]; auto; apply ln_last. Qed.
  Lemma kgood_kline k : kgood s k -> kline k.
  Proof.
    intros (H1 & H2 & [H3 H4]). split; [exact H1|]. split; [exact H2|]. split; [|exact H4].
    destruct (d_prefix (k_leaf (tkey s k))); [apply ws_lines_raw, H3|exact I].
  Qed.

  (* `twl`, and what it asks of an entry of a table at header depth h whose key/value lines have n keys in front *)
  Definition ient_of (twl : bool -> nat -> nat -> tbl -> Prop) (h n : nat) (it : item) : Prop :=
    match it with
    | INone => True
    | IValue v => pair_wf true (IValue (tvalue s v)) /\ line_lim (S n) (IValue (tvalue s v))
    | ITable sub => (t_dotted sub = false -> S h < LIMIT) /\ twl false (S h) (if t_dotted sub then S n else 0) sub
    | IAot ts _ => S h < LIMIT /\ all_P (twl false (S h) 0) ts
    end.
  Fixpoint twl (top : bool) (h n : nat) (t : tbl) {struct t} : Prop :=
    match t with
    | Tbl items d im dt _ _ =>
      decor_ok SLines (if top then SLines else SLineTrail) (tdecor s d) /\ (dt = true -> im = true)
      /\ all_P (fun kv => kline (fst kv) /\ ient_of twl h n (snd kv)) items
    end.
  Definition ient : nat -> nat -> item -> Prop := ient_of twl.
  Definition tentry (h n : nat) (kv : key * item) : Prop := kline (fst kv) /\ ient h n (snd kv).
  Lemma twl_eq top h n t :
    twl top h n t <-> decor_ok SLines (if top then SLines else SLineTrail) (tdecor s (t_decor t))
                      /\ (t_dotted t = true -> t_implicit t = true) /\ all_P (tentry h n) (t_items t).
  Proof. destruct t; reflexivity. Qed.
  Lemma twl_items top h n t : twl top h n t -> all_P (tentry h n) (t_items t).
  Proof. intro H. apply twl_eq in H. apply H. Qed.
  Lemma twl_set_items top h n t m : twl top h n t -> all_P (tentry h n) m -> twl top h n (t_set_items t m).
  Proof. destruct t. cbn [t_set_items]. rewrite !twl_eq. cbn. tauto. Qed.
  Lemma twl_set_span top h n t sp : twl top h n (t_set_span t sp) <-> twl top h n t.
  Proof. destruct t. reflexivity. Qed.
  Lemma twl_new top h n im dt : (dt = true -> im = true) -> twl top h n (Tbl [] decor_default im dt None None).
  Proof. intro H. cbn. split; [split; exact I|]. split; [exact H|exact I]. Qed.
  Lemma t_items_set_items t m : t_items (t_set_items t m) = m. Proof. destruct t; reflexivity. Qed.

  Lemma twl_get top h n t k k0 it : twl top h n t -> kv_get (t_items t) k = Some (k0, it) -> ient h n it.
  Proof. intros H G. exact (proj2 (all_P_get _ _ _ _ _ (twl_items _ _ _ _ H) G)). Qed.
  Lemma twl_set top h n t k k0 it0 it :
    twl top h n t -> kv_get (t_items t) k = Some (k0, it0) -> ient h n it -> twl top h n (t_set_items t (kv_set (t_items t) k it)).
  Proof.
    intros H G Hit. pose proof (twl_items _ _ _ _ H) as Hall. apply (twl_set_items _ _ _ _ _ H), (all_P_set _ _ _ k0 _ _ Hall G).
    exact (conj (proj1 (all_P_get _ _ _ _ _ Hall G)) Hit).
  Qed.
  Lemma twl_push top h n t k it : twl top h n t -> kline k -> ient h n it -> twl top h n (t_set_items t (kv_push (t_items t) k it)).
  Proof. intros H Hk Hit. apply (twl_set_items _ _ _ _ _ H), all_P_push; [apply (twl_items _ _ _ _ H)|exact (conj Hk Hit)]. Qed.

  (* ---- descend_path ------------------------------------------------------------------------------------------------ *)
  (* The table `par` that descend_path reaches through p lies length p header levels further down, with at most
     length p more keys in front of its lines; whatever stands there afterwards with the same flags (`hframe`) and is
     good at that level fits back into the tree.  A table created on the way is dotted iff the path is a dotted key,
     so the level it is checked at is that of an existing table of its kind. *)
  Lemma dctx_twl d p r r' par par' : dctx_rel d p r r' par par' ->
    forall top h n, twl top h n r -> Forall kline p -> (d = false -> h + length p < LIMIT) ->
    exists top' n', n' <= n + length p /\ twl top' (h + length p) n' par
      /\ (hframe par par' -> twl top' (h + length p) n' par' -> twl top h n r').
  Proof.
    induction 1 as [t t'|t k p sub par par' G Hc IH|t k p k0 sub sub' par par' G Hc IH|t k p k0 ts sp last rinit last' par par' G Er Hc IH];
      intros top h n Ht Hp Hlen.
    - exists top, n. cbn [length]. rewrite !Nat.add_0_r. auto.
    - apply Forall_cons_iff in Hp as [Hk Hp]. cbn [length] in Hlen |- *. rewrite (Nat.add_succ_r h) in Hlen |- *.
      destruct (IH false (S h) (if d then S n else 0) (twl_new _ _ _ true d (fun _ => eq_refl)) Hp Hlen) as (top' & n' & Hn' & Hpar & Hback).
      exists top', n'. split; [destruct d; lia|]. split; [exact Hpar|]. intros Hf Hpar'.
      destruct (dctx_hframe _ _ _ _ _ _ Hc Hf) as (_ & _ & Ed & _). apply (twl_push _ _ _ _ _ _ Ht Hk). cbn [ient ient_of]. rewrite Ed. cbn [implicitd t_dotted].
      split; [intro E; specialize (Hlen E); lia|apply Hback; assumption].
    - apply Forall_cons_iff in Hp as [Hk Hp]. cbn [length] in Hlen |- *. rewrite (Nat.add_succ_r h) in Hlen |- *. destruct (twl_get _ _ _ _ _ _ _ Ht G) as [Hh Hsub].
      destruct (IH false (S h) _ Hsub Hp Hlen) as (top' & n' & Hn' & Hpar & Hback).
      exists top', n'. split; [destruct (t_dotted sub); lia|]. split; [exact Hpar|]. intros Hf Hpar'.
      destruct (dctx_hframe _ _ _ _ _ _ Hc Hf) as (_ & _ & Ed & _). apply (twl_set _ _ _ _ _ _ _ _ Ht G). cbn [ient ient_of]. rewrite Ed.
      split; [exact Hh|apply Hback; assumption].
    - apply Forall_cons_iff in Hp as [Hk Hp]. cbn [length] in Hlen |- *. rewrite (Nat.add_succ_r h) in Hlen |- *. destruct (twl_get _ _ _ _ _ _ _ Ht G) as [Hh Hts].
      assert (Ets : ts = rev rinit ++ [last]) by (rewrite <- (rev_involutive ts), Er; reflexivity).
      rewrite Ets in Hts. apply all_P_app in Hts as [Hinit [Hlast _]].
      destruct (IH false (S h) 0 Hlast Hp Hlen) as (top' & n' & Hn' & Hpar & Hback).
      exists top', n'. split; [lia|]. split; [exact Hpar|]. intros Hf Hpar'. apply (twl_set _ _ _ _ _ _ _ _ Ht G).
      split; [exact Hh|]. cbn [rev]. apply all_P_app. split; [exact Hinit|]. split; [apply Hback; assumption|exact I].
  Qed.

  Lemma wta_twl {X} d (f : tbl -> cres (tbl * X)) p t t' x top h n :
    with_table_at t p d f = COk (t', x) -> twl top h n t -> Forall kline p -> (d = false -> h + length p < LIMIT) ->
    exists par par' top' n', f par = COk (par', x) /\ n' <= n + length p /\ twl top' (h + length p) n' par
      /\ (hframe par par' -> twl top' (h + length p) n' par' -> twl top h n t' /\ hframe t t').
  Proof.
    intros E Ht Hp Hlen. destruct (wta_dctx d f _ _ _ _ E) as (par & par' & Hf & Hc).
    destruct (dctx_twl _ _ _ _ _ _ Hc top h n Ht Hp Hlen) as (top' & n' & Hn' & Hpar & Hback).
    exists par, par', top', n'. split; [exact Hf|]. split; [exact Hn'|]. split; [exact Hpar|]. intros Hfr Hpar'.
    split; [apply Hback; assumption|apply (dctx_hframe _ _ _ _ _ _ Hc Hfr)].
  Qed.

  (* ---- the state ------------------------------------------------------------------------------------------------------ *)
  Definition sinv (st : pstate) : Prop :=
    twl true 0 0 (st_root st)
    /\ twl false (length (st_path st)) 0 (st_current st)
    /\ t_dotted (st_current st) = false
    /\ Forall kline (st_path st) /\ length (st_path st) < LIMIT
    /\ (st_path st = [] -> t_decor (st_current st) = decor_default)
    /\ t_dotted (st_root st) = false.

  Lemma limit_pos : 0 < LIMIT. Proof. unfold LIMIT. lia. Qed.
  Lemma sinv_new : sinv state_new.
  Proof.
    unfold sinv, state_new. cbn [st_root st_current st_path length]. split; [apply twl_new; discriminate|].
    split; [apply twl_set_span, twl_new; discriminate|]. split; [reflexivity|]. split; [constructor|]. split; [apply limit_pos|split; reflexivity].
  Qed.
  Lemma sinv_on_ws st sp : sinv st -> sinv (on_ws st sp).
  Proof. exact (fun H => H). Qed.

  Lemma twl_top_default h n t : twl false h n t -> t_decor t = decor_default -> twl true h n t.
  Proof. rewrite !twl_eq. intros (_ & H2 & H3) E. rewrite E. split; [split; exact I|auto]. Qed.

  (* ---- on_keyval ----------------------------------------------------------------------------------------------------- *)
  Lemma on_keyval_sinv st path k v st' :
    on_keyval st path k (IValue v) = COk st' -> sinv st ->
    Forall kline path -> kgood s k -> raw_ok SLines (traw s (kv_prefix st k)) ->
    value_wf CLine (tvalue s v) -> written v -> value_lim 0 (tvalue s v) -> S (length path) < LIMIT ->
    sinv st' /\ st_path st' = st_path st /\ st_trailing st' = None.
  Proof.
    unfold on_keyval. cbv zeta. fold (kv_prefix st k).
    set (k' := set_leaf k (mkDecor (Some (kv_prefix st k)) (d_suffix (k_leaf k)))).
    set (cur := match t_span (st_current st), item_span (IValue v) with
                | Some e, Some vs => t_set_span (st_current st) (Some (fst e, snd vs))
                | _, _ => st_current st end).
    intros H (Hr & Hc & Hcd & Hp & Hl & Hdef & Hrd) Hpath Hk Hpre Hv Hwr Hvl Hlen.
    assert (Hk' : kline k').
    { destruct Hk as (H1 & H2 & [_ H4]). split; [exact H1|]. split; [exact H2|]. split; [exact Hpre|exact H4]. }
    assert (Ecur : exists sp, cur = t_set_span (st_current st) sp).
    { assert (E0 : st_current st = t_set_span (st_current st) (t_span (st_current st))) by (destruct (st_current st); reflexivity).
      subst cur. destruct (t_span (st_current st)), (item_span (IValue v)); eauto. }
    destruct Ecur as [csp Ecur].
    destruct (with_table_at cur path true _) as [[cur' u]| |] eqn:E; try discriminate. injection H as <-.
    destruct (wta_twl _ _ _ _ _ _ false (length (st_path st)) 0 E) as (par & par' & top' & n' & Hf & Hn' & Hpar & Hback);
      [rewrite Ecur; apply twl_set_span, Hc|exact Hpath|discriminate|].
    cbv beta in Hf. destruct (Bool.eqb (t_dotted par) _); [discriminate|]. destruct (kv_get (t_items par) (k_key k')); [discriminate|]. injection Hf as <-.
    destruct (Hback (hframe_set_items _ _)) as [Hc' (Edec & _ & Edot & _)].
    { apply (twl_push _ _ _ _ _ _ Hpar Hk'). pose proof (proj2 (written_t s v) Hwr) as Hw'. cbn [ient ient_of]. rewrite (written_plain_pair _ Hw').
      split; [exact Hv|]. destruct (tvalue s v) as [x r d|vals tr c d sp|sub pre im dt d sp]; cbn [line_lim]; [| |destruct Hw' as [_ ->]]; (split; [lia|exact Hvl]). }
    rewrite Ecur in Edec, Edot. cbn [st_path st_trailing]. split; [|auto]. unfold sinv. cbn [st_root st_current st_path].
    split; [exact Hr|]. split; [exact Hc'|]. split; [rewrite Edot, dotted_set_span; exact Hcd|]. split; [exact Hp|]. split; [exact Hl|]. split; [|exact Hrd].
    intro E0. rewrite Edec. destruct (st_current st); apply Hdef, E0.
  Qed.

  (* the span bookkeeping of dotted tables changes spans only *)
  Lemma set_dotted_spans_twl : forall path t e top h n, twl top h n t -> twl top h n (set_dotted_spans t path e).
  Proof.
    induction path as [|k ptl IH]; intros t e top h n Ht; [exact Ht|].
    destruct (set_dotted_spans_cons t k ptl e) as [->|(k0 & sub & sp & G & ->)]; [exact Ht|].
    destruct (twl_get _ _ _ _ _ _ _ Ht G) as [Hh Hsub]. apply (twl_set _ _ _ _ _ _ _ _ Ht G). cbn [ient ient_of].
    destruct (set_dotted_spans_hframe (t_set_span sub sp) ptl e) as (_ & _ & -> & _). rewrite dotted_set_span. split; [exact Hh|apply IH, twl_set_span, Hsub].
  Qed.

  Lemma on_keyval_sp_sinv st path k v st' :
    on_keyval_sp st path k (IValue v) = COk st' -> sinv st ->
    Forall kline path -> kgood s k -> raw_ok SLines (traw s (kv_prefix st k)) ->
    value_wf CLine (tvalue s v) -> written v -> value_lim 0 (tvalue s v) -> S (length path) < LIMIT ->
    sinv st' /\ st_path st' = st_path st /\ st_trailing st' = None.
  Proof.
    intros H Hs Hp Hk Hpre Hv Hw Hl Hlen. apply on_keyval_sp_inv in H as (st1 & E & ->). destruct (on_keyval_sinv st path k v st1 E Hs Hp Hk Hpre Hv Hw Hl Hlen) as ((Hr & Hc & Hcd & Hpp & Hll & Hdef & Hrd) & Ep & Et).
    cbn [st_path st_trailing]. split; [|auto]. unfold sinv. cbn [st_root st_current st_path].
    destruct (set_dotted_spans_hframe (st_current st1) path (item_end (IValue v))) as (Edec & _ & Ed & _).
    split; [exact Hr|]. split; [apply set_dotted_spans_twl, Hc|]. split; [rewrite Ed; exact Hcd|]. split; [exact Hpp|]. split; [exact Hll|]. split; [|exact Hrd].
    intro E0. rewrite Edec. apply Hdef, E0.
  Qed.

  (* ---- finalize_table -------------------------------------------------------------------------------------------------- *)
  Lemma finalize_sinv st st' :
    finalize_table st = COk st' -> sinv st ->
    twl true 0 0 (st_root st') /\ t_dotted (st_root st') = false /\ st_path st' = [] /\ st_trailing st' = st_trailing st /\ st_current st' = tbl_new.
  Proof.
    rewrite finalize_table_eq. intros H (Hr & Hc & Hcd & Hp & Hl & Hdef & Hrd).
    destruct (pop_key (st_path st)) as [[ppath k]|] eqn:Ep.
    - apply pop_key_some in Ep. rewrite Ep in Hp, Hl, Hc. apply Forall_app in Hp as [Hpp Hk]. apply Forall_inv in Hk.
      rewrite app_length, Nat.add_1_r in Hl, Hc.
      destruct (with_table_at (st_root st) ppath false _) as [[root' u]| |] eqn:E; try discriminate. injection H as <-.
      destruct (wta_twl _ _ _ _ _ _ true 0 0 E Hr Hpp (fun _ => Nat.lt_succ_l _ _ Hl)) as (par & par' & top' & n' & Hf & _ & Hpar & Hback).
      cbn [Nat.add] in Hpar, Hback.
      (* the detached section, as an entry of its parent *)
      assert (Hcur : ient (length ppath) n' (ITable (st_current st))) by (cbn [ient ient_of]; rewrite Hcd; auto).
      assert (Hpar' : hframe par par' /\ twl top' (length ppath) n' par').
      { destruct (st_is_array st); [unfold f_fin_aot in Hf|unfold f_fin_std in Hf];
          destruct (kv_get (t_items par) (k_key k)) as [[k0 [|v0|t0|ts asp]]|] eqn:G; try discriminate.
        - injection Hf as <-. split; [apply hframe_set_items|]. apply (twl_set _ _ _ _ _ _ _ _ Hpar G).
          destruct (twl_get _ _ _ _ _ _ _ Hpar G) as [Hh Hts]. split; [exact Hh|]. apply all_P_app. split; [exact Hts|split; [exact Hc|exact I]].
        - injection Hf as <-. split; [apply hframe_set_items|]. apply (twl_push _ _ _ _ _ _ Hpar Hk). split; [exact Hl|split; [exact Hc|exact I]].
        - destruct (t_implicit t0); [|discriminate]. injection Hf as <-. split; [apply hframe_set_items|]. apply (twl_set _ _ _ _ _ _ _ _ Hpar G Hcur).
        - injection Hf as <-. split; [apply hframe_set_items|]. apply (twl_push _ _ _ _ _ _ Hpar Hk Hcur). }
      destruct (Hback (proj1 Hpar') (proj2 Hpar')) as [Hr' (_ & _ & Ed & _)].
      cbn [finalized st_root st_path st_trailing st_current]. split; [exact Hr'|]. split; [rewrite Ed; exact Hrd|auto].
    - apply pop_key_none in Ep. destruct (tbl_is_empty (st_root st)); [|discriminate]. injection H as <-.
      cbn [finalized st_root st_path st_trailing st_current]. split; [|split; [exact Hcd|auto]]. rewrite Ep in Hc. cbn [length] in Hc. apply twl_top_default; [exact Hc|apply Hdef, Ep].
  Qed.

  (* ---- start_table / start_array_table ---------------------------------------------------------------------------------- *)
  Lemma tentry_empty h n h' n' m : all_P (tentry h n) m -> forallb (fun kv => item_is_none (snd kv)) m = true -> all_P (tentry h' n') m.
  Proof.
    induction m as [|[k1 v1] m IH]; cbn [all_P forallb]; [auto|]. intros [[H1 _] H2] Hb. apply andb_true_iff in Hb as [Hb1 Hb2]. cbn [snd fst] in *.
    split; [|apply IH; assumption]. destruct v1; try discriminate. split; [exact H1|exact I].
  Qed.

  Lemma open_table_sinv st root' cur path dec sp arr :
    twl true 0 0 root' -> t_dotted root' = false -> all_P (tentry (length path) 0) (t_items cur) -> decor_ok SLines SLineTrail (tdecor s dec) ->
    Forall kline path -> length path < LIMIT -> path <> [] ->
    sinv (open_table st root' cur path dec sp arr).
  Proof.
    intros Hr Hrd Hitems Hdec Hp Hl Hne. unfold open_table, sinv. cbn [st_root st_current st_path].
    split; [exact Hr|]. split; [apply twl_eq; cbn [t_decor t_dotted t_implicit t_items]; split; [exact Hdec|split; [discriminate|exact Hitems]]|].
    split; [reflexivity|]. split; [exact Hp|]. split; [exact Hl|]. split; [intro E; contradiction|exact Hrd].
  Qed.

  (* both kinds of header look the table they name up under the last key k, in the table `par` that the rest of the path
     leads to; `cur` is what they open *)
  Lemma start_sinv arr st path ppath k dec sp root' par par' cur :
    sinv st -> Forall kline path -> length path < LIMIT -> decor_ok SLines SLineTrail (tdecor s dec) ->
    pop_key path = Some (ppath, k) -> dctx_rel false ppath (st_root st) root' par par' ->
    (kline k -> S (length ppath) < LIMIT -> forall top' n, twl top' (length ppath) n par ->
       hframe par par' /\ twl top' (length ppath) n par' /\ all_P (tentry (S (length ppath)) 0) (t_items cur)) ->
    sinv (open_table st root' cur path dec sp arr).
  Proof.
    intros (Hr & _ & _ & _ & _ & _ & Hrd) Hpath Hlen Hdec Ep Hc Hf.
    apply pop_key_some in Ep. assert (Hne : path <> []) by (rewrite Ep; destruct ppath; discriminate).
    pose proof Hpath as Hpath0. pose proof Hlen as Hlen0. rewrite Ep in Hpath, Hlen. apply Forall_app in Hpath as [Hpp Hk]. apply Forall_inv in Hk.
    rewrite app_length, Nat.add_1_r in Hlen.
    destruct (dctx_twl _ _ _ _ _ _ Hc true 0 0 Hr Hpp (fun _ => Nat.lt_succ_l _ _ Hlen)) as (top' & n' & _ & Hpar & Hback).
    destruct (Hf Hk Hlen _ _ Hpar) as (Hfr & Hpar' & Hitems). destruct (dctx_hframe _ _ _ _ _ _ Hc Hfr) as (_ & _ & Ed & _).
    apply open_table_sinv; [exact (Hback Hfr Hpar')|rewrite Ed; exact Hrd| |exact Hdec|exact Hpath0|exact Hlen0|exact Hne].
    rewrite Ep, app_length, Nat.add_1_r. exact Hitems.
  Qed.

  Lemma start_table_sinv st path dec sp st' :
    start_table st path dec sp = COk st' -> sinv st -> Forall kline path -> length path < LIMIT ->
    decor_ok SLines SLineTrail (tdecor s dec) ->
    sinv st' /\ st_path st' = path /\ st_trailing st' = st_trailing st.
  Proof.
    intros H Hs Hpath Hlen Hdec. pose proof Hs as (_ & Hc & _).
    destruct (start_table_dctx _ _ _ _ _ H) as (Ee & Epath & ppath & k & root' & par & par' & taken & Ep & Hctx & -> & Htk).
    split; [|split; reflexivity]. apply (start_sinv false st path ppath k dec sp root' par par' _ Hs Hpath Hlen Hdec Ep Hctx).
    intros Hk Hh top' n Hpar. destruct taken as [t0|].
    - destruct Htk as ([k0 G] & _ & Ed & ->). split; [apply hframe_set_items|].
      split; [apply (twl_set_items _ _ _ _ _ Hpar), all_P_remove, (twl_items _ _ _ _ Hpar)|].
      destruct (twl_get _ _ _ _ _ _ _ Hpar G) as [_ Ht0]. rewrite Ed in Ht0. apply (twl_items _ _ _ _ Ht0).
    - destruct Htk as [_ ->]. split; [apply hframe_refl|]. split; [exact Hpar|]. apply (tentry_empty _ _ _ _ _ (twl_items _ _ _ _ Hc) Ee).
  Qed.

  Lemma start_array_table_sinv st path dec sp st' :
    start_array_table st path dec sp = COk st' -> sinv st -> Forall kline path -> length path < LIMIT ->
    decor_ok SLines SLineTrail (tdecor s dec) ->
    sinv st' /\ st_path st' = path /\ st_trailing st' = st_trailing st.
  Proof.
    intros H Hs Hpath Hlen Hdec. pose proof Hs as (_ & Hc & _).
    destruct (start_array_table_dctx _ _ _ _ _ H) as (Ee & Epath & ppath & k & root' & par & par' & Ep & Hctx & -> & Hpar').
    split; [|split; reflexivity]. apply (start_sinv true st path ppath k dec sp root' par par' _ Hs Hpath Hlen Hdec Ep Hctx).
    intros Hk Hh top' n Hpar. pose proof (tentry_empty _ _ (S (length ppath)) 0 _ (twl_items _ _ _ _ Hc) Ee) as Hitems.
    destruct Hpar' as [[_ ->]|[_ ->]].
    - split; [apply hframe_refl|]. split; [exact Hpar|exact Hitems].
    - split; [apply hframe_set_items|]. split; [|exact Hitems]. apply (twl_push _ _ _ _ _ _ Hpar Hk). split; [exact Hh|exact I].
  Qed.

  (* ---- on_header -------------------------------------------------------------------------------------------------------- *)
  Definition trailing_raw (st : pstate) : raw := match st_trailing st with Some sp => raw_with_span sp | None => REmpty end.

  Lemma on_header_sinv arr st path trailing sp st' :
    on_header arr st path trailing sp = COk st' -> sinv st -> Forall kline path -> length path < LIMIT ->
    raw_ok SLines (traw s (trailing_raw st)) -> raw_ok SLineTrail (traw s (raw_with_span trailing)) ->
    sinv st' /\ st_path st' = path /\ st_trailing st' = None.
  Proof.
    unfold on_header. intros H Hs Hpath Hlen Hlead Htr. destruct path as [|k0 ptl] eqn:Epath; [discriminate|]. rewrite <- Epath in *.
    destruct (finalize_table st) as [st1| |] eqn:Ef; try discriminate.
    destruct (finalize_sinv st st1 Ef Hs) as (Hr1 & Hrd1 & Ep1 & Et1 & Ec1).
    unfold take_trailing in H. cbv zeta in H.
    set (st2 := mkState (st_root st1) None (st_position st1) (st_current st1) (st_is_array st1) (st_path st1)) in *.
    assert (Hs2 : sinv st2).
    { unfold sinv, st2. cbn [st_root st_current st_path]. rewrite Ec1, Ep1. cbn [length]. split; [exact Hr1|]. split; [apply twl_new; discriminate|].
      split; [reflexivity|]. split; [constructor|]. split; [apply limit_pos|split; [reflexivity|exact Hrd1]]. }
    assert (Hdec : decor_ok SLines SLineTrail (tdecor s (decor_new (match st_trailing st1 with Some sp0 => raw_with_span sp0 | None => REmpty end) (raw_with_span trailing)))).
    { split; cbn [tdecor decor_new d_prefix d_suffix toraw oraw_ok]; [rewrite Et1; exact Hlead|exact Htr]. }
    destruct arr.
    - destruct (start_array_table_sinv st2 path _ sp st' H Hs2 Hpath Hlen Hdec) as (H1 & H2 & H3). auto.
    - destruct (start_table_sinv st2 path _ sp st' H Hs2 Hpath Hlen Hdec) as (H1 & H2 & H3). auto.
  Qed.
End PS.
