(* Proofs/SpansExact.v — C14: the span stored for a value is exactly the window of the value token(s):
   `value` consumes at least one byte, stores (pos before, pos after) as the value's span (the repr of a
   scalar, the span of an array / inline table) and clears the decor.  Likewise for a simple key
   (Proofs/SpansLex.v simple_key_exact, key_part_exact). *)
From TV Require Import Base.Prelude Base.Winnow.
From TV Require Import Model.Numbers Model.Tree Model.Parse.
From TV Require Import Proofs.NoPanicBase Proofs.NoPanicLex Proofs.NoPanicValue.
From TV Require Import Proofs.SpansLex Proofs.SpansValue.
Require Import Lia ZifyBool ZifyN ZifyNat.
From TV Require Import Base.ListFacts.

(* ---- every value token consumes at least one byte ------------------------------------------------------- *)
Lemma dec_int_progress : progress dec_int.
Proof. unfold dec_int. np. Qed.
Lemma prefixed_int_progress w prefix d : prefix <> [] -> mono d -> progress (prefixed_int w prefix d).
Proof. intros. unfold prefixed_int. np. Qed.
Lemma integer_progress : progress integer.
Proof.
  intros i a i' H. destruct (integer_cases i) as [E|[E|[E|E]]]; rewrite E in H; revert H;
    match goal with |- ?p i = _ -> _ => assert (M : progress p); [|apply M] end.
  - apply progress_cut_err, progress_try_map, prefixed_int_progress; [discriminate|np].
  - apply progress_cut_err, progress_try_map, prefixed_int_progress; [discriminate|np].
  - apply progress_cut_err, progress_try_map, prefixed_int_progress; [discriminate|np].
  - apply progress_and_then, dec_int_progress.
Qed.
Lemma float__progress : progress float_.
Proof. rewrite float_eq_. unfold float_body. pose proof dec_int_progress. np. Qed.
Lemma inf_progress : progress inf. Proof. unfold inf. apply progress_pvalue, progress_lit. discriminate. Qed.
Lemma nan_progress : progress nan. Proof. unfold nan. apply progress_pvalue, progress_lit. discriminate. Qed.
Lemma special_float_progress : progress special_float.
Proof.
  unfold special_float. apply progress_bind_r; [np|]. intro s. apply progress_bind_l.
  - apply progress_alt; [apply inf_progress|apply nan_progress].
  - intro f. destruct s as [b|]; np.
Qed.
Lemma float_progress : progress float.
Proof.
  unfold float. apply progress_context, progress_alt; [apply progress_and_then, float__progress|apply special_float_progress].
Qed.
Lemma bool_lit_progress l v : l <> [] -> progress (bool_lit l v).
Proof.
  intro H. unfold bool_lit. destruct l as [|c l]; [congruence|].
  apply progress_bind_r; [np|]. intros _. apply progress_bind_l; [|intros; np].
  apply progress_cut_err, progress_lit. discriminate.
Qed.
Lemma true_progress : progress true_. Proof. apply bool_lit_progress. discriminate. Qed.
Lemma false_progress : progress false_. Proof. apply bool_lit_progress. discriminate. Qed.

Section Knot.
  Variable value_rec : parser value.
  Hypothesis Hm : mono value_rec.

  Lemma array_progress : progress (array value_rec).
  Proof.
    pose proof (array_values_mono _ Hm). unfold array. apply progress_bind_l; [np|]. intros _. np.
  Qed.
  Lemma inline_table_progress : progress (inline_table value_rec).
  Proof.
    pose proof (inline_body_mono _ Hm). rewrite inline_table_eq. apply progress_bind_l; [np|]. intros _. np.
  Qed.
  Lemma value_body_progress : progress (value_body value_rec).
  Proof.
    pose proof array_progress. pose proof inline_table_progress.
    pose proof integer_progress. pose proof float_progress. pose proof true_progress. pose proof false_progress.
    pose proof inf_progress. pose proof nan_progress.
    unfold value_body. apply progress_bind_r; [np|]. intro b.
    repeat match goal with |- progress (if ?c then _ else _) => destruct c end; np.
  Qed.
End Knot.

Lemma value_span_apply_raw v a b : (a < b)%N -> value_span (apply_raw v (a, b)) = Some (a, b).
Proof.
  intro H. unfold apply_raw. destruct v as [s r d|vals tr c d sp|items pre im dt d sp]; cbn [value_decorate value_span]; auto.
  unfold raw_with_span; cbn [fst snd]. destruct (a =? b)%N eqn:Q; [lia|reflexivity].
Qed.
Definition value_decor (v : value) : decor :=
  match v with VScalar _ _ d => d | VArray _ _ _ d _ => d | VInline _ _ _ _ d _ => d end.
Lemma value_decor_apply_raw v sp : value_decor (apply_raw v sp) = decor_new REmpty REmpty.
Proof. unfold apply_raw. destruct v; reflexivity. Qed.

(* value.rs `value`: span = exactly what was consumed; the consumed text is a non-empty prefix of the input *)
Lemma value_f_exact n i v i' :
  value_f n i = Ok v i' ->
  value_span v = Some (pos i, pos i') /\ (pos i < pos i')%N /\ value_decor v = decor_new REmpty REmpty
  /\ exists t, rest i = t ++ rest i' /\ pos i' = (pos i + N.of_nat (length t))%N /\ t <> [].
Proof.
  destruct n as [|n]; [discriminate|]. change (value_f (S n)) with (value_step (value_f n)). intro E.
  pose proof (proj1 (value_f_all n)) as Hm.
  apply value_step_exact in E as (v0 & E & ->).
  pose proof (value_body_progress _ Hm _ _ _ E) as G. pose proof (value_body_mono _ Hm _ _ _ E) as (t & R & P & _).
  assert (Ht : t <> []) by (intro X; subst t; rewrite R in G; cbn in G; lia).
  assert (Hlt : (pos i < pos i')%N) by (destruct t; [congruence|cbn [length] in P; lia]).
  split; [apply value_span_apply_raw, Hlt|]. split; [exact Hlt|]. split; [apply value_decor_apply_raw|]. eauto.
Qed.
Theorem value_exact i v i' :
  value_ i = Ok v i' ->
  value_span v = Some (pos i, pos i') /\ (pos i < pos i')%N /\ value_decor v = decor_new REmpty REmpty
  /\ exists t, rest i = t ++ rest i' /\ pos i' = (pos i + N.of_nat (length t))%N /\ t <> [].
Proof. apply value_f_exact. Qed.

Lemma value_progress : progress value_.
Proof.
  intros i v i' E. apply value_exact in E as (_ & _ & _ & t & R & _ & Ht). rewrite R, app_length.
  destruct t; [congruence|cbn; lia].
Qed.

(* key.rs `simple_key`: repr = exactly what was consumed *)
Theorem simple_key_span_exact i r k i' :
  simple_key i = Ok (r, k) i' ->
  r = RSpanned (pos i) (pos i') /\ (pos i < pos i')%N
  /\ exists t, rest i = t ++ rest i' /\ pos i' = (pos i + N.of_nat (length t))%N /\ t <> [].
Proof.
  intro E. pose proof (simple_key_mono _ _ _ E) as (t & R & P & _). apply simple_key_exact in E as (-> & L & _).
  split; [reflexivity|]. split; [exact L|]. exists t. repeat split; auto. intro X; subst t. cbn in P. lia.
Qed.

(* when the cursor points into a source text s, the consumed text is the slice of s at the span *)
Definition cursor_of (s : bytes) (i : input) : Prop := rest i = skipn (N.to_nat (pos i)) s.

Lemma cursor_slice s i i' t :
  cursor_of s i -> rest i = t ++ rest i' -> pos i' = (pos i + N.of_nat (length t))%N ->
  slice s (pos i) (pos i') = t /\ cursor_of s i'.
Proof.
  unfold cursor_of, slice. intros C R P. rewrite P. replace (N.to_nat (pos i + N.of_nat (length t) - pos i)) with (length t) by lia.
  rewrite <- C, R. split.
  - rewrite firstn_app, Nat.sub_diag, firstn_all. cbn [firstn]. apply app_nil_r.
  - replace (N.to_nat (pos i + N.of_nat (length t))) with (N.to_nat (pos i) + length t) by lia.
    rewrite <- skipn_add. rewrite <- C, R. symmetry. apply skipn_app_len.
Qed.
