(* Proofs/DepthBase.v — lemmas behind Props/C05.v, part 1.
   (a) the depth measures: `tbl_depth` (the measure printed by the `depth` observation command:
       root table = 1, child table +1, array-of-tables element +2, a value contributes
       `value_depth`), folded forms of `value_depth` / `tbl_depth`;
   (b) the limit constant;
   (c) "depth preservation": every parser of the model returns, on success, an input carrying the
       RecursionCheck counter it was started with (`dp`), a part of `mono`. *)
From Coq Require Import List Bool Arith NArith ZArith Lia.
From Coq.Strings Require Import Byte.
From TV Require Import Base.Winnow Gen.Consts.
From TV Require Import Model.Tree Model.Parse.
From TV Require Import Proofs.NoPanicBase.
From TV Require Import Proofs.ModelFacts.
Import ListNotations.

(* ---- (a) depth measures ---------------------------------------------------------------- *)

(* verbatim copy of Extract/Commands.v: tbl_depth, since Props must not depend on the Extract directory *)
Fixpoint tbl_depth (t : tbl) : nat :=
  match t with
  | Tbl items _ _ _ _ _ =>
    S (fold_right (fun kv acc =>
                     match kv with
                     | (_, IValue v) => Nat.max (value_depth v) acc
                     | (_, ITable s) => Nat.max (tbl_depth s) acc
                     | (_, IAot ts _) => Nat.max (S (fold_right (fun e a => Nat.max (tbl_depth e) a) 0 ts)) acc
                     | (_, INone) => acc
                     end) 0 items)
  end.

(* maximum of a measure over a list *)
Definition lmax {A} (f : A -> nat) (l : list A) : nat := fold_right (fun x acc => Nat.max (f x) acc) 0 l.

Lemma lmax_nil {A} (f : A -> nat) : lmax f [] = 0.
Proof. reflexivity. Qed.
Lemma lmax_cons {A} (f : A -> nat) x l : lmax f (x :: l) = Nat.max (f x) (lmax f l).
Proof. reflexivity. Qed.
Lemma lmax_app {A} (f : A -> nat) l1 l2 : lmax f (l1 ++ l2) = Nat.max (lmax f l1) (lmax f l2).
Proof.
  induction l1 as [|x l1 IH]; [reflexivity|].
  rewrite <- app_comm_cons, !lmax_cons, IH. lia.
Qed.
Lemma lmax_rev {A} (f : A -> nat) l : lmax f (rev l) = lmax f l.
Proof.
  induction l as [|x l IH]; [reflexivity|].
  cbn [rev]. rewrite lmax_app, IH, !lmax_cons, lmax_nil. lia.
Qed.
Lemma lmax_in {A} (f : A -> nat) l x : In x l -> f x <= lmax f l.
Proof.
  induction l as [|y l IH]; intros H; [destruct H|].
  rewrite lmax_cons. destruct H as [->|H]; [lia|]. specialize (IH H). lia.
Qed.
Lemma lmax_le {A} (f : A -> nat) l n : (forall x, In x l -> f x <= n) -> lmax f l <= n.
Proof.
  induction l as [|y l IH]; intros H; [rewrite lmax_nil; lia|].
  rewrite lmax_cons. apply Nat.max_lub; [apply H; left; reflexivity|].
  apply IH. intros x Hx. apply H. right. exact Hx.
Qed.

(* depth contributed by the items of an inline table / array *)
Definition kvs_depth (m : kvs) : nat := lmax (fun kv => item_depth (snd kv)) m.
Definition items_depth (l : list item) : nat := lmax item_depth l.

Lemma value_depth_inline m p im dt d sp : value_depth (VInline m p im dt d sp) = S (kvs_depth m).
Proof.
  cbn [value_depth]. f_equal. unfold kvs_depth, lmax.
  induction m as [|[k it] m IH]; [reflexivity|].
  cbn [fold_right snd]. rewrite IH. destruct it; reflexivity.
Qed.

Lemma value_depth_array l t c d sp : value_depth (VArray l t c d sp) = S (items_depth l).
Proof.
  cbn [value_depth]. f_equal. unfold items_depth, lmax.
  induction l as [|it l IH]; [reflexivity|].
  cbn [fold_right]. rewrite IH. destruct it; reflexivity.
Qed.

Lemma value_depth_scalar s r d : value_depth (VScalar s r d) = 0.
Proof. reflexivity. Qed.

Lemma value_depth_apply_raw v sp : value_depth (apply_raw v sp) = value_depth v.
Proof. unfold apply_raw. rewrite value_depth_decorate. destruct v; reflexivity. Qed.

(* depth contributed by one item of a table *)
Definition titem_depth (it : item) : nat :=
  match it with
  | INone => 0
  | IValue v => value_depth v
  | ITable s => tbl_depth s
  | IAot ts _ => S (lmax tbl_depth ts)
  end.
Definition titems_depth (m : kvs) : nat := lmax (fun kv => titem_depth (snd kv)) m.

Lemma tbl_depth_eq items d im dt p s : tbl_depth (Tbl items d im dt p s) = S (titems_depth items).
Proof.
  cbn [tbl_depth]. f_equal. unfold titems_depth, lmax.
  induction items as [|[k it] m IH]; [reflexivity|].
  cbn [fold_right snd]. rewrite IH. destruct it; reflexivity.
Qed.

Lemma tbl_depth_items t : tbl_depth t = S (titems_depth (t_items t)).
Proof. destruct t. apply tbl_depth_eq. Qed.

(* ---- (b) the limit ---------------------------------------------------------------------- *)
Lemma LIMIT_ge2 : 2 <= LIMIT.
Proof. unfold LIMIT. lia. Qed.

Lemma check_depth_false n : check_depth n = false <-> n < LIMIT.
Proof. unfold check_depth. apply Nat.leb_gt. Qed.
Lemma check_depth_true n : check_depth n = true <-> LIMIT <= n.
Proof. unfold check_depth. apply Nat.leb_le. Qed.

(* RecursionCheck::enter refuses level LIMIT; inside, the counter stays below LIMIT *)
Lemma check_recursion_refuses {A} (p : parser A) i :
  LIMIT <= S (depth i) -> exists i', check_recursion p i = Cut (err_of RecursionLimit) i'.
Proof.
  intro H. unfold check_recursion. cbn [depth set_depth].
  destruct (Nat.leb LIMIT (S (depth i))) eqn:E.
  - eexists; reflexivity.
  - apply Nat.leb_gt in E. lia.
Qed.

Lemma check_recursion_inside {A} (p : parser A) i a i' :
  check_recursion p i = Ok a i' -> S (depth i) < LIMIT.
Proof.
  intro H. unfold check_recursion in H. cbn [depth set_depth] in H.
  destruct (Nat.leb LIMIT (S (depth i))) eqn:E; [discriminate|]. apply Nat.leb_gt in E. exact E.
Qed.

(* ---- (c) depth preservation ------------------------------------------------------------- *)
Definition dp {A} (p : parser A) : Prop := forall i a i', p i = Ok a i' -> depth i' = depth i.

(* `mono` (Proofs/NoPanicBase.v) says, among other things, that the counter is handed back: every
   `dp` fact is read off the `mono` fact of the same parser *)
Lemma mono_dp {A} (p : parser A) : mono p -> dp p.
Proof. intros H i a i' E. eapply ext_depth, H, E. Qed.

Lemma depth_advance n i : depth (advance n i) = depth i.
Proof. reflexivity. Qed.

Lemma dp_empty : dp empty.
Proof. apply mono_dp. np. Qed.
Lemma dp_fail {A} : dp (@fail A).
Proof. apply mono_dp. np. Qed.
Lemma dp_cutfun {A} e j : dp (fun _ => @Cut A e j).
Proof. intros i x i' H. discriminate. Qed.
Lemma dp_cut_custom {A} c : dp (@cut_custom A c).
Proof. apply mono_dp. np. Qed.
Lemma dp_any : dp any.
Proof. apply mono_dp. np. Qed.
Lemma dp_none_of f : dp (none_of f).
Proof. apply mono_dp. np. Qed.
Lemma dp_lit l : dp (lit l).
Proof. apply mono_dp. np. Qed.
Lemma dp_take_while0 f : dp (take_while0 f).
Proof. apply mono_dp. np. Qed.
Lemma dp_take_while1 f : dp (take_while1 f).
Proof. apply mono_dp. np. Qed.
Lemma dp_take_n n : dp (take_n n).
Proof. apply mono_dp. np. Qed.
Lemma dp_rest : dp rest_.
Proof. apply mono_dp. np. Qed.
Lemma dp_eof : dp eof.
Proof. apply mono_dp. np. Qed.
