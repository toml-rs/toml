(* Proofs/NoPanicTop.v — C04: the statements of Props/C04.v in plain terms (no auxiliary judgement
   in the conclusion where avoidable), derived from NoPanicBase/Lex/Value/State/Doc. *)
From TV Require Import Base.Prelude Base.Winnow.
From TV Require Import Model.Trivia Model.Strings Model.Datetime Model.Numbers Model.Parse Model.Document.
From TV Require Import Proofs.NoPanicBase Proofs.NoPanicLex Proofs.NoPanicValue Proofs.NoPanicDoc.
Require Import Lia.

Lemma safe_plain {A} (p : parser A) : safe p <-> forall i s, p i <> Panic s.
Proof.
  split.
  - intros H i s E. specialize (H i I). rewrite E in H. exact H.
  - intros H i _. specialize (H i). destruct (p i); try exact I. eapply H. reflexivity.
Qed.

(* what the four judgements mean, in terms of the model only *)
Lemma judgements_meaning :
  (forall A (p : parser A), safe p <-> forall i s, p i <> Panic s)
  /\ (forall A (p : parser A), mono p <->
        forall i a i', p i = Ok a i' ->
          exists t, rest i = t ++ rest i' /\ pos i' = (pos i + N.of_nat (length t))%N /\ depth i' = depth i)
  /\ (forall A (p : parser A), progress p <-> forall i a i', p i = Ok a i' -> length (rest i') < length (rest i)).
Proof.
  refine (conj _ (conj _ _)).
  - intros. apply safe_plain.
  - intros A p. split.
    + intros H i a i' E. destruct (H i a i' E) as (t & R & P & D & _). eauto.
    + intros H i a i' E. destruct (H i a i' E) as (t & R & P & D). exists t. repeat split; auto. apply forallb_anyb.
  - intros. reflexivity.
Qed.

(* the loops of Base/Winnow.v over ARBITRARY sub-parsers: mono is preserved; with mono, safe and
   progressing elements (separators) the loop started with fuel S (length (rest i)) never panics — neither
   P_out_of_fuel nor P_repeat_no_progress. *)
Lemma loops_total :
  (forall A (p : parser A), mono p -> mono (repeat0 p) /\ mono (repeat1 p))
  /\ (forall A S (p : parser A) (sep : parser S), mono p -> mono sep -> mono (separated0 p sep) /\ mono (separated1 p sep))
  /\ (forall A (p : parser A), mono p -> progress p -> safe p -> safe (repeat0 p) /\ safe (repeat1 p))
  /\ (forall A S (p : parser A) (sep : parser S), mono p -> mono sep -> progress sep -> safe p -> safe sep ->
        safe (separated0 p sep) /\ safe (separated1 p sep))
  /\ (forall p, mono p -> progress p -> safe p -> safe (chunks p)).
Proof.
  refine (conj _ (conj _ (conj _ (conj _ _)))); intros.
  - split; np.
  - split; np.
  - split; np.
  - split; np.
  - np.
Qed.

(* the sequencing combinators: mono and safe are preserved *)
Lemma combinators_total :
  (forall A B (p : parser A) (f : A -> parser B), mono p -> (forall a, mono (f a)) -> mono (bind p f))
  /\ (forall A B (p : parser A) (f : A -> parser B), mono p -> safe p -> (forall a, safe (f a)) -> safe (bind p f))
  /\ (forall A (p q : parser A), mono p -> mono q -> mono (alt p q))
  /\ (forall A (p q : parser A), safe p -> safe q -> safe (alt p q))
  /\ (forall A (p : parser A), mono p -> mono (opt p) /\ mono (peek p) /\ mono (cut_err p) /\ mono (context p)
                                         /\ mono (span_ p) /\ mono (with_span p) /\ mono (taken p))
  /\ (forall A (p : parser A), safe p -> safe (opt p) /\ safe (peek p) /\ safe (cut_err p) /\ safe (context p)
                                         /\ safe (span_ p) /\ safe (with_span p) /\ safe (taken p))
  /\ (forall A B (g : A -> B) (p : parser A), (mono p -> mono (pmap g p)) /\ (safe p -> safe (pmap g p)))
  /\ (forall A (g : A -> bool) (p : parser A), (mono p -> mono (verify g p)) /\ (safe p -> safe (verify g p)))
  /\ (forall A B (g : A -> option B) (p : parser A), (mono p -> mono (verify_map g p)) /\ (safe p -> safe (verify_map g p)))
  /\ (forall A B (g : A -> tm B) (p : parser A),
        (mono p -> mono (try_map g p)) /\ (safe p -> (forall a s, g a <> TmPanic s) -> safe (try_map g p)))
  /\ (forall A B (p : parser A) (g : A -> sub B),
        (mono p -> mono (and_then p g)) /\ (safe p -> (forall a s, g a <> SubPanic s) -> safe (and_then p g)))
  /\ (forall n (p : parser bytes),
        (mono p -> mono (unchecked_utf8 n p))
        /\ (safe p -> valP (fun b => forallb ascii b = true) p -> safe (unchecked_utf8 n p)))
  /\ (forall A (p : parser A), mono p -> safe p -> mono (check_recursion p) /\ safe (check_recursion p)).
Proof.
  refine (conj _ (conj _ (conj _ (conj _ (conj _ (conj _ (conj _ (conj _ (conj _ (conj _ (conj _ (conj _ _))))))))))));
    intros; repeat apply conj; intros; try solve [np].
  - apply safe_try_map_total; assumption.
  - apply safe_and_then; assumption.
  - apply safe_unchecked; assumption.
Qed.

(* NoPanicLex.lexical_total without the judgement *)
Lemma lexical_total_plain : forall (i : input) (s : site),
  ws i <> Panic s /\ comment i <> Panic s /\ newline i <> Panic s /\ ws_newline i <> Panic s
  /\ ws_newlines i <> Panic s /\ ws_comment_newline i <> Panic s /\ line_ending i <> Panic s
  /\ line_trailing i <> Panic s
  /\ basic_string i <> Panic s /\ ml_basic_string i <> Panic s /\ literal_string i <> Panic s
  /\ ml_literal_string i <> Panic s /\ string_ i <> Panic s
  /\ integer i <> Panic s /\ float i <> Panic s /\ true_ i <> Panic s /\ false_ i <> Panic s
  /\ date_time i <> Panic s /\ simple_key i <> Panic s /\ key_ i <> Panic s.
Proof.
  intros i s. repeat apply conj; apply safe_plain; np.
Qed.

Lemma value_total_plain : forall (i : input) (s : site), value_ i <> Panic s.
Proof. intros i s. apply safe_plain, value_safe. Qed.

Lemma document_total_plain : forall (i : input) (s : site), document i <> Panic s.
Proof. intros i s. apply safe_plain, document_safe. Qed.

Lemma entry_points_total : forall (s : bytes) (st : site),
  parse_document s <> PPanic st /\ parse_value_raw s <> PPanic st
  /\ parse_key s <> PPanic st /\ parse_key_path s <> PPanic st.
Proof.
  intros s st. repeat apply conj;
    [apply parse_document_total|apply parse_value_total|apply parse_key_total|apply parse_key_path_total].
Qed.
