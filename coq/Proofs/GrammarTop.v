(* Proofs/GrammarTop.v — the whole-document statements of C01 / C02 (Props/C01doc.v, C02doc.v),
   assembled from Proofs/GrammarDoc.v (soundness), Proofs/GrammarDocReject.v (the outcome on a text
   with a derivation: completeness and rejection) and C09's facts about the two runs of the definition rules (spec_run: the specification, Undecided
   exactly on class U1; code_run: the pinned code's resolution of U1). *)
From TV Require Import Base.Prelude Spec.Defs Spec.Syntax.
From TV Require Import Model.Document.
From TV Require Import Proofs.DefsEquivKv.
From TV Require Import Proofs.GrammarBase Proofs.GrammarDoc Proofs.GrammarDocReject.

Lemma verdict_valid stmts T : verdict stmts = Valid T ->
  forallb stmt_ok stmts = true /\ spec_run (map stmt_den stmts) = Valid T /\ code_run (map stmt_den stmts) = Valid T.
Proof.
  unfold verdict. destruct (forallb stmt_ok stmts); [|discriminate]. intro H. split; [reflexivity|]. split; [exact H|].
  rewrite spec_run_code_run; [exact H|]. rewrite H. discriminate.
Qed.

Lemma verdict_of_code stmts T : forallb stmt_ok stmts = true -> code_run (map stmt_den stmts) = Valid T ->
  verdict stmts <> Invalid /\ (forall T', verdict stmts = Valid T' -> T' = T).
Proof.
  intros Hok Hc. unfold verdict. rewrite Hok. split.
  - intro H. rewrite spec_run_code_run in Hc by (rewrite H; discriminate). congruence.
  - intros T' H. rewrite spec_run_code_run in Hc by (rewrite H; discriminate). congruence.
Qed.

Theorem c01_sound s d : parse_document s = POk d ->
  exists stmts, toml_text s stmts /\ verdict stmts <> Invalid /\ within_limits stmts = true.
Proof.
  intro H. destruct (parse_document_sound s d H) as (stmts & Ht & Hok & Hwi & Hc).
  exists stmts. split; [exact Ht|]. split; [apply (verdict_of_code stmts _ Hok Hc)|exact Hwi].
Qed.

Theorem c01_complete s stmts T : toml_text s stmts -> verdict stmts = Valid T -> within_limits stmts = true ->
  exists d, parse_document s = POk d.
Proof.
  intros Ht Hv Hwi. destruct (verdict_valid stmts T Hv) as (Hok & _ & Hc).
  destruct (parse_document_complete s stmts T Ht Hok Hwi Hc) as (d & Hd & _). eauto.
Qed.

(* a valid text outside class U1 is refused only because of the implementation limits *)
Corollary c01_only_limits_refused s stmts T : toml_text s stmts -> verdict stmts = Valid T ->
  (forall d, parse_document s <> POk d) -> within_limits stmts = false.
Proof.
  intros Ht Hv Hn. destruct (within_limits stmts) eqn:E; [|reflexivity].
  destruct (c01_complete s stmts T Ht Hv E) as (d & Hd). exfalso. apply (Hn d Hd).
Qed.

Theorem c02_tree_partial s d stmts T :
  parse_document s = POk d -> toml_text s stmts -> verdict stmts = Valid T -> within_limits stmts = true ->
  abs_doc d = T.
Proof.
  intros Hp Ht Hv Hwi. destruct (verdict_valid stmts T Hv) as (Hok & _ & Hc).
  destruct (parse_document_complete s stmts T Ht Hok Hwi Hc) as (d' & Hd & Ha). congruence.
Qed.

(* the tree of an accepted document is the one denoted by the statements of a derivation of its
   text — under the specification when that decides, under the code's resolution of U1 always *)
Theorem c02_tree_witness s d : parse_document s = POk d ->
  exists stmts, toml_text s stmts /\ within_limits stmts = true /\ verdict stmts <> Invalid
                /\ (forall T, verdict stmts = Valid T -> abs_doc d = T)
                /\ code_run (map stmt_den stmts) = Valid (abs_doc d).
Proof.
  intro H. destruct (parse_document_sound s d H) as (stmts & Ht & Hok & Hwi & Hc).
  destruct (verdict_of_code stmts _ Hok Hc) as [Hn Hu].
  exists stmts. split; [exact Ht|]. split; [exact Hwi|]. split; [exact Hn|]. split; [|exact Hc].
  intros T HT. symmetry. apply (Hu T HT).
Qed.

(* ---- from ANY derivation of the text (Proofs/GrammarDocReject.v) ------------------------------------ *)
Theorem c02_tree s d stmts T :
  parse_document s = POk d -> toml_text s stmts -> verdict stmts = Valid T -> abs_doc d = T.
Proof.
  intros Hp Ht Hv. destruct (verdict_valid stmts T Hv) as (_ & _ & Hc).
  destruct (parse_document_total s d stmts Hp Ht) as (_ & _ & Hc'). congruence.
Qed.

(* a text with a derivation that the specification forbids, or that is outside the limits, is refused *)
Theorem c01_invalid_rejected s stmts : toml_text s stmts ->
  verdict stmts = Invalid \/ within_limits stmts = false -> forall d, parse_document s <> POk d.
Proof.
  intros Ht Hbad d Hp. destruct (parse_document_total s d stmts Hp Ht) as (Hok & Hwi & Hc).
  destruct Hbad as [Hv | Hw]; [|congruence]. apply (proj1 (verdict_of_code stmts _ Hok Hc)), Hv.
Qed.

(* acceptance, decided on any derivation outside class U1 *)
Theorem c01_exact s stmts : toml_text s stmts -> verdict stmts <> Undecided ->
  ((exists d, parse_document s = POk d) <-> ((exists T, verdict stmts = Valid T) /\ within_limits stmts = true)).
Proof.
  intros Ht Hu. split.
  - intros (d & Hp). destruct (parse_document_total s d stmts Hp Ht) as (Hok & Hwi & Hc). split; [|exact Hwi].
    destruct (verdict stmts) as [T| |] eqn:Ev; [eauto| |congruence].
    exfalso. apply (proj1 (verdict_of_code stmts _ Hok Hc)), Ev.
  - intros [(T & Hv) Hwi]. apply (c01_complete s stmts T Ht Hv Hwi).
Qed.

(* all derivations of an accepted text denote the same tree *)
Corollary c02_derivations_agree s d l1 l2 T1 T2 :
  parse_document s = POk d -> toml_text s l1 -> toml_text s l2 -> verdict l1 = Valid T1 -> verdict l2 = Valid T2 -> T1 = T2.
Proof. intros Hp H1 H2 V1 V2. rewrite <- (c02_tree s d l1 T1 Hp H1 V1). apply (c02_tree s d l2 T2 Hp H2 V2). Qed.
