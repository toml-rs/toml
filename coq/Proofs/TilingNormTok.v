(* Proofs/TilingNormTok.v — C03, scanner side, part 3: the tokens without quotes (booleans,
   integers, floats, date-times, unquoted keys) are plain texts; scalars and keys are
   statement-like pieces with follow condition `qstop`. *)
From TV Require Import Base.Prelude Spec.Abnf Spec.Lex Spec.Syntax.
From TV Require Import Proofs.LexEquivBase Proofs.GrammarValueComplete.
From TV Require Import Proofs.TilingDefs Proofs.TilingNormScan Proofs.TilingNormStr.
Require Import Lia ZifyBool ZifyN ZifyNat.

(* ---- qstop -------------------------------------------------------------------------------------------- *)
Lemma qstop_ws w r : ws_tok w -> qstop r -> qstop (w ++ r).
Proof.
  destruct w as [|b w]; [auto|]. unfold ws_tok, all. cbn [forallb app qstop]. intros H _.
  apply andb_true_iff in H as [H _]. split; intros ->; discriminate H.
Qed.

Lemma qstop_optc c r : opt_comment c -> qstop r -> qstop (c ++ r).
Proof. intros [-> | (u & -> & _)] Hr; [exact Hr|]. cbn [app qstop]. split; discriminate. Qed.

Lemma qstop_newline nl r : newline_tok nl -> qstop (nl ++ r).
Proof. intros [-> | ->]; cbn [app qstop]; split; discriminate. Qed.

Lemma qstop_wscn w r : wscn_tok w -> qstop r -> qstop (w ++ r).
Proof.
  intros [|b t Hb _|c nl t Hc Hn _] Hr; [exact Hr| |].
  - cbn [app qstop]. split; intros ->; discriminate Hb.
  - rewrite <- app_assoc. apply qstop_optc; [exact Hc|]. rewrite <- app_assoc. apply qstop_newline, Hn.
Qed.

Lemma lendf_qstop r : lendf r -> qstop r.
Proof. intros [-> | (nl & r' & Hn & ->)]; [exact I|apply qstop_newline, Hn]. Qed.

Ltac qs :=
  rewrite <- ?app_assoc;
  repeat first
    [ assumption
    | apply qstop_ws; [assumption|]
    | apply qstop_wscn; [assumption|]
    | apply qstop_optc; [assumption|]
    | apply lendf_qstop; assumption
    | (progress cbn [app qstop]; split; discriminate) ].

(* ---- the bytes of unquoted tokens ------------------------------------------------------------------------ *)
(* digits, letters, "_" "+" "-" "." ":" and the space of a date-time *)
Definition tokb (b : byte) : bool :=
  rng 48 57 b || rng 65 90 b || rng 97 122 b || rng 95 95 b || rng 43 43 b || rng 45 46 b || rng 58 58 b || rng 32 32 b.
Definition all_tok (t : bytes) : Prop := forallb tokb t = true.

Lemma tokb_plain b : tokb b = true -> plainb b = true.
Proof. unfold tokb, plainb, nqb. cls. lia. Qed.

Lemma tokb_blank b : tokb b = true -> b <> x20 -> blank b = false.
Proof.
  unfold tokb, blank. intros H Hn. assert (b2n b <> 32%N) by (intro E; apply Hn; apply b2n_inj; exact E).
  revert H. cls. lia.
Qed.

Lemma all_tok_plain t : all_tok t -> plain t.
Proof. apply forallb_impl, tokb_plain. Qed.

Lemma all_tok_app a b : all_tok a -> all_tok b -> all_tok (a ++ b).
Proof. unfold all_tok. intros Ha Hb. rewrite forallb_app, Ha, Hb. reflexivity. Qed.

Lemma all_tok_cons b t : tokb b = true -> all_tok t -> all_tok (b :: t).
Proof. unfold all_tok. cbn [forallb]. intros -> ->. reflexivity. Qed.

Lemma all_class (c : byte -> bool) t : (forall b, c b = true -> tokb b = true) -> forallb c t = true -> all_tok t.
Proof. apply forallb_impl. Qed.

Lemma digit_tokb b : digit b = true -> tokb b = true.
Proof. unfold tokb. cls. lia. Qed.
Lemma digit1_9_tokb b : digit1_9 b = true -> tokb b = true.
Proof. unfold tokb. cls. lia. Qed.
Lemma hexdig_tokb b : hexdig b = true -> tokb b = true.
Proof. unfold tokb. cls. lia. Qed.
Lemma digit0_7_tokb b : digit0_7 b = true -> tokb b = true.
Proof. unfold tokb. cls. lia. Qed.
Lemma digit0_1_tokb b : digit0_1 b = true -> tokb b = true.
Proof. unfold tokb. cls. lia. Qed.
Lemma unquoted_tokb b : unquoted_key_char b = true -> tokb b = true /\ b <> x20.
Proof. unfold tokb. split; [revert H; cls; lia|intros ->; discriminate H]. Qed.
Lemma time_delim_tokb b : time_delim b = true -> tokb b = true.
Proof. unfold tokb, time_delim. cls. lia. Qed.

(* languages whose texts are made of token bytes *)
Definition tall (L : lang) : Prop := forall t v, L t v -> all_tok t.

Lemma tall_one c : (forall b, c b = true -> tokb b = true) -> tall (one c).
Proof. intros H t v (b & Hb & -> & _). apply all_tok_cons; [apply H, Hb|reflexivity]. Qed.
Lemma tall_skip l : all_tok l -> tall (skip l).
Proof. intros H t v [-> _]. exact H. Qed.
Lemma tall_cat L1 L2 : tall L1 -> tall L2 -> tall (cat L1 L2).
Proof. intros H1 H2 t v (t1 & v1 & t2 & v2 & -> & _ & A & B). apply all_tok_app; [apply (H1 _ _ A)|apply (H2 _ _ B)]. Qed.
Lemma tall_either L1 L2 : tall L1 -> tall L2 -> tall (either L1 L2).
Proof. intros H1 H2 t v [A | B]; [apply (H1 _ _ A)|apply (H2 _ _ B)]. Qed.
Lemma tall_star L : tall L -> tall (star L).
Proof. intros H t v. induction 1 as [|t1 v1 t2 v2 A _ IH]; [reflexivity|]. apply all_tok_app; [apply (H _ _ A)|exact IH]. Qed.
Lemma tall_star1 L : tall L -> tall (star1 L).
Proof. intro H. apply tall_cat; [exact H|apply tall_star, H]. Qed.

Lemma tall_us_digit d : (forall b, d b = true -> tokb b = true) -> tall (us_digit d).
Proof. intro H. apply tall_either; [apply tall_one, H|apply tall_cat; [apply tall_skip; reflexivity|apply tall_one, H]]. Qed.

Lemma tall_unsigned : tall unsigned_dec_int.
Proof.
  apply tall_either; [apply tall_one, digit_tokb|].
  apply tall_cat; [apply tall_one, digit1_9_tokb|apply tall_star1, tall_us_digit, digit_tokb].
Qed.

Lemma tall_zpi : tall zero_prefixable_int_tok.
Proof. apply tall_cat; [apply tall_one, digit_tokb|apply tall_star, tall_us_digit, digit_tokb]. Qed.

Lemma tall_frac : tall frac_tok.
Proof. apply tall_cat; [apply tall_skip; reflexivity|apply tall_zpi]. Qed.

Lemma sign_all_tok s neg : sign s neg -> all_tok s.
Proof. intros [[-> _] | [[-> _] | [-> _]]]; reflexivity. Qed.

Lemma exp_all_tok ex e : exp_tok ex e -> all_tok ex.
Proof.
  intros (c & s & neg & u & ds & -> & Hc & Hs & Hu & _). apply all_tok_cons; [destruct Hc as [-> | ->]; reflexivity|].
  apply all_tok_app; [apply (sign_all_tok s neg Hs)|apply (tall_zpi u ds Hu)].
Qed.

Lemma prefixed_all_tok prefix d radix t z : all_tok prefix -> (forall b, d b = true -> tokb b = true) ->
  prefixed_int_tok prefix d radix t z -> all_tok t.
Proof.
  intros Hp Hd (u & ds & -> & Hu & _). apply all_tok_app; [exact Hp|].
  apply (tall_cat (one d) (star (us_digit d))) in Hu; [exact Hu|apply tall_one, Hd|apply tall_star, tall_us_digit, Hd].
Qed.

Lemma integer_all_tok t z : integer_tok t z -> all_tok t.
Proof.
  intros [(s & neg & u & ds & -> & Hs & Hu & _) | [H | [H | H]]].
  - apply all_tok_app; [apply (sign_all_tok s neg Hs)|apply (tall_unsigned u ds Hu)].
  - apply (prefixed_all_tok [x30; x78] hexdig 16%N t z); [reflexivity|apply hexdig_tokb|exact H].
  - apply (prefixed_all_tok [x30; x6f] digit0_7 8%N t z); [reflexivity|apply digit0_7_tokb|exact H].
  - apply (prefixed_all_tok [x30; x62] digit0_1 2%N t z); [reflexivity|apply digit0_1_tokb|exact H].
Qed.

Lemma float_all_tok t f : float_tok t f -> all_tok t.
Proof.
  intros [s neg ip ipd ex e Hs Hi He|s neg ip ipd fr frd Hs Hi Hf|s neg ip ipd fr frd ex e Hs Hi Hf He|s neg Hs|s neg Hs];
    (apply all_tok_app; [apply (sign_all_tok s neg Hs)|]); try reflexivity;
    (apply all_tok_app; [apply (tall_unsigned ip ipd Hi)|]).
  - apply (exp_all_tok ex e He).
  - apply (tall_frac fr frd Hf).
  - apply all_tok_app; [apply (tall_frac fr frd Hf)|apply (exp_all_tok ex e He)].
Qed.

Lemma boolean_all_tok t b : boolean_tok t b -> all_tok t.
Proof. intros [[-> _] | [-> _]]; reflexivity. Qed.

Lemma digits_all_tok n t v : digits_tok n t v -> all_tok t.
Proof. intros (_ & H & _). apply (all_class digit); [apply digit_tokb|exact H]. Qed.

Lemma full_date_all_tok t d : full_date_tok t d -> all_tok t.
Proof.
  intros (ty & tm & td & y & m & dd & -> & Hy & Hm & Hd & _).
  repeat first [apply all_tok_app | apply (digits_all_tok _ _ _ Hy) | apply (digits_all_tok _ _ _ Hm)
               | apply (digits_all_tok _ _ _ Hd) | reflexivity].
Qed.

Lemma partial_time_all_tok t tm : partial_time_tok t tm -> all_tok t.
Proof.
  intros (th & tmi & ts & tf & h & mi & s & ns & -> & Hh & Hm & Hs & Hf & _).
  assert (Af : all_tok tf).
  { destruct Hf as [[-> _] | (ds & -> & _ & Hds & _)]; [reflexivity|].
    apply all_tok_cons; [reflexivity|apply (all_class digit); [apply digit_tokb|exact Hds]]. }
  repeat first [apply all_tok_app | apply (digits_all_tok _ _ _ Hh) | apply (digits_all_tok _ _ _ Hm)
               | apply (digits_all_tok _ _ _ Hs) | exact Af | reflexivity].
Qed.

Lemma time_offset_all_tok t o : time_offset_tok t o -> all_tok t.
Proof.
  intros [[[-> | ->] _] | (sg & neg & th & tmi & h & mi & -> & Hsg & Hh & Hm & _)]; try reflexivity.
  assert (As : all_tok sg) by (destruct Hsg as [[-> _] | [-> _]]; reflexivity).
  repeat first [apply all_tok_app | apply (digits_all_tok _ _ _ Hh) | apply (digits_all_tok _ _ _ Hm) | exact As | reflexivity].
Qed.

Lemma date_time_all_tok t d : date_time_tok t d -> all_tok t.
Proof.
  intros [(td & dl & tt & tz & dt & tm & o & -> & Hd & Hdl & Ht & Hz & _)
         | [(td & dl & tt & dt & tm & -> & Hd & Hdl & Ht & _)
           | [(dt & Hd & _) | (tm & Ht & _)]]].
  - apply all_tok_app; [apply (full_date_all_tok _ _ Hd)|]. apply all_tok_app; [apply all_tok_cons; [apply time_delim_tokb, Hdl|reflexivity]|].
    apply all_tok_app; [apply (partial_time_all_tok _ _ Ht)|apply (time_offset_all_tok _ _ Hz)].
  - apply all_tok_app; [apply (full_date_all_tok _ _ Hd)|]. apply all_tok_app; [apply all_tok_cons; [apply time_delim_tokb, Hdl|reflexivity]|].
    apply (partial_time_all_tok _ _ Ht).
  - apply (full_date_all_tok _ _ Hd).
  - apply (partial_time_all_tok _ _ Ht).
Qed.

(* ---- scalars ------------------------------------------------------------------------------------------- *)
Lemma scalar_val t a : scalar_text t a -> val_tok t a.
Proof.
  intros [t0 s H|t0 b H|t0 d H|t0 f H|t0 z H];
    [apply v_string|apply v_boolean|apply v_date_time|apply v_float|apply v_integer]; exact H.
Qed.

Lemma qt_tok t a : val_tok t a -> all_tok t -> qt CS anyf t.
Proof.
  intros Hv Ht. destruct (val_tok_head t a Hv) as (b & t' & -> & Hb).
  destruct (vhead_facts b Hb) as (Hw & _). apply qt_plain; [apply all_tok_plain, Ht|].
  apply tokb_blank; [unfold all_tok in Ht; cbn [forallb] in Ht; apply andb_true_iff in Ht as [Ht _]; exact Ht|].
  intros ->. discriminate Hw.
Qed.

Lemma til_tok t a : val_tok t a -> all_tok t -> til CS anyf t t.
Proof. intros Hv Ht. apply qt_til, (qt_tok t a Hv Ht). Qed.

Theorem qt_scalar t a : scalar_text t a -> qt CS qstop t.
Proof.
  intro H. pose proof (scalar_val t a H) as Hv.
  destruct H as [t0 s H|t0 b H|t0 d H|t0 f H|t0 z H].
  - apply (qt_string t0 s H).
  - apply qt_any, (qt_tok _ _ Hv), (boolean_all_tok _ _ H).
  - apply qt_any, (qt_tok _ _ Hv), (date_time_all_tok _ _ H).
  - apply qt_any, (qt_tok _ _ Hv), (float_all_tok _ _ H).
  - apply qt_any, (qt_tok _ _ Hv), (integer_all_tok _ _ H).
Qed.

(* ---- keys ------------------------------------------------------------------------------------------------ *)
Lemma qt_simple_key t k : simple_key_tok t k -> qt CS qstop t.
Proof.
  intros [H | [H | [[Hne Ha] _]]].
  - apply (qt_basic_string t k H).
  - apply (qt_literal_string t k H).
  - destruct t as [|b t]; [congruence|]. apply qt_any.
    assert (At : all_tok (b :: t)) by (apply (all_class unquoted_key_char); [intros c Hc; apply unquoted_tokb, Hc|exact Ha]).
    apply qt_plain; [apply all_tok_plain, At|].
    unfold all in Ha. cbn [forallb] in Ha. apply andb_true_iff in Ha as [Hb _].
    destruct (unquoted_tokb b Hb) as [H1 H2]. apply tokb_blank; assumption.
Qed.

Lemma til_simple_key t k : simple_key_tok t k -> til CS qstop t t.
Proof. intro H. apply qt_til, (qt_simple_key t k H). Qed.

Lemma qt_key k p : key_tok k p -> qt CS qstop k.
Proof.
  induction 1 as [t k H|t k w1 w2 u ks H Hw1 Hw2 _ IH]; [apply (qt_simple_key t k H)|].
  apply (qt_app CS CS qstop qstop); [apply (qt_simple_key t k H)| |intros r Hr; qs].
  apply (qt_app_any CB CS); [apply qt_ws, Hw1|].
  apply (qt_app_any CS CS); [apply qt_byte; reflexivity|].
  apply (qt_app_any CB CS); [apply qt_ws, Hw2|exact IH].
Qed.
