(* Proofs/GrammarDocComplete.v — C01/C02 layers L2 + L3, one statement of a document from the
   grammar's side: on the text of a key/value line or a table header the parser's outcome is
   determined by the statement it makes.  A well-defined statement within the limits is read
   and handed to the parse state, which follows the definition rules (C09's simulation): the
   line is accepted with the new state, or refused WITH COMMITMENT when the rules refuse the
   statement; an ill-defined statement or one outside the limits is refused with commitment by
   the text parser itself.  Also: first bytes of items, and uniqueness of the whitespace split
   in front of them. *)
From TV Require Import Base.Prelude Base.Winnow Gen.Consts Spec.Abnf Spec.Lex Spec.Defs Spec.Syntax.
From TV Require Import Model.Tree Model.Document.

From TV Require Import Proofs.DefsEquivBase Proofs.DefsEquivSim.
From TV Require Import Proofs.LexEquivBase Proofs.LexEquivKey Proofs.GrammarBase
                       Proofs.GrammarSep Proofs.GrammarValueComplete
                       Proofs.GrammarDocBase Proofs.GrammarDocLine.
From TV Require Import Proofs.DocumentOps.
Require Import Lia ZifyBool ZifyN ZifyNat.

(* ---- first bytes of items ------------------------------------------------------------------------- *)
Lemma khead_facts b : khead b ->
  wschar b = false /\ byte_eqb b COMMENT_START_SYMBOL = false /\ byte_eqb b STD_TABLE_OPEN = false
  /\ byte_eqb b LF = false /\ byte_eqb b CR = false.
Proof.
  intros [-> | [-> | H]]; [repeat split; reflexivity|repeat split; reflexivity|].
  unfold COMMENT_START_SYMBOL, STD_TABLE_OPEN, LF, CR. revert H. cls. lia.
Qed.

Lemma keyval_tok_khead t p a : keyval_tok t p a -> exists b t', t = b :: t' /\ khead b.
Proof.
  intros (kt & w1 & w2 & v & -> & Hkt & _). destruct (key_khead kt p Hkt) as (b & t' & -> & Hb).
  exists b, (t' ++ w1 ++ [x3d] ++ w2 ++ v). split; [reflexivity|exact Hb].
Qed.

Lemma table_tok_head arr t p : table_tok arr t p -> exists t', t = x5b :: t'.
Proof. intro H. apply table_tok_eq in H as (w1 & k & w2 & -> & _). destruct arr; eexists; reflexivity. Qed.

Lemma item_cases e l : item_tok e l ->
  (e = [] /\ l = []) \/ exists b tl, e = b :: tl /\ wschar b = false.
Proof.
  intros [|c Hc|t p a w c Ht _ _|t p w c Ht _ _|t p w c Ht _ _].
  - left. auto.
  - right. destruct (comment_head c Hc) as (u & ->). exists x23, u. auto.
  - right. destruct (keyval_tok_khead t p a Ht) as (b & t' & -> & Hb). exists b, (t' ++ w ++ c).
    split; [reflexivity|apply (khead_facts b Hb)].
  - right. destruct (table_tok_head false t p Ht) as (t' & ->). exists x5b, (t' ++ w ++ c). auto.
  - right. destruct (table_tok_head true t p Ht) as (t' & ->). exists x5b, (t' ++ w ++ c). auto.
Qed.

Lemma ws_prefix_unique : forall w1 x w2 y,
  ws_tok w1 -> ws_tok w2 -> stops wschar x -> stops wschar y -> w1 ++ x = w2 ++ y -> w1 = w2 /\ x = y.
Proof.
  unfold ws_tok, all. induction w1 as [|a w1 IH]; intros x w2 y H1 H2 Hx Hy E.
  - destruct w2 as [|b w2]; [auto|]. cbn [app] in E. subst x. cbn [forallb] in H2. apply andb_true_iff in H2 as [Hb _].
    cbn [stops] in Hx. congruence.
  - destruct w2 as [|b w2].
    + cbn [app] in E. subst y. cbn [forallb] in H1. apply andb_true_iff in H1 as [Ha _]. cbn [app stops] in Hy. congruence.
    + cbn [app] in E. injection E as -> E. cbn [forallb] in H1, H2.
      apply andb_true_iff in H1 as [_ H1]. apply andb_true_iff in H2 as [_ H2].
      destruct (IH x w2 y H1 H2 Hx Hy E) as [-> ->]. auto.
Qed.

Lemma ws_split s : exists w s', s = w ++ s' /\ ws_tok w /\ stops wschar s'.
Proof. destruct (span_while_split wschar s) as (a & r & E & Ha & Hr & _). exists a, r. auto. Qed.

(* ---- one statement ---------------------------------------------------------------------------------- *)
(* the step of the definition rules on data, guarded by the statement's side conditions *)
Definition dstep (S : sstate dval) (s : astmt) : res (sstate dval) :=
  if stmt_ok s && stmt_within s then spec_step false S (stmt_den s) else RInvalid.

(* p, run at i, does what the outcome x of the rules says: it stops at i' in a state that
   simulates the new spec state, or fails the way `bad` says (`fails`: softly, `cuts`: with
   commitment) *)
Definition lresult (bad : parser pstate -> input -> Prop) (p : parser pstate) (i i' : input)
           (x : res (sstate dval)) : Prop :=
  match x with
  | ROk X => exists st1 S1, p i = Ok st1 i' /\ Inv st1 S1 /\ dstate S1 = X
  | _ => bad p i
  end.

(* keyval and header have the shape try_map (state update) text-parser ... *)
Lemma try_map_step {A} (g : A -> tm pstate) (p : parser A) i a i' c x :
  p i = Ok a i' -> g a = lift_state c -> dsim c x -> lresult fails (try_map g p) i i' x.
Proof.
  intros Ep Eg Hs. destruct x as [X| |]; cbn [dsim lresult] in *.
  - destruct Hs as (st1 & S1 & -> & HI & EX). exists st1, S1. split; [|auto]. apply (try_map_ok _ _ _ a st1 _ Ep Eg).
  - destruct Hs as [ce ->]. apply (fails_try_map_err _ _ _ a _ ce Ep Eg).
  - destruct Hs as [ce ->]. apply (fails_try_map_err _ _ _ a _ ce Ep Eg).
Qed.

(* ... under context / cut_err in the document loop: a refusal by the state commits *)
Lemma lresult_context p i i' x : lresult fails p i i' x -> lresult fails (context p) i i' x.
Proof.
  destruct x as [X| |]; cbn [lresult]; [|apply context_fails..].
  intros (st1 & S1 & E & H). exists st1, S1. split; [apply context_ok, E|exact H].
Qed.

Lemma lresult_cut_err p q i i' x : q i = p i -> lresult fails p i i' x -> lresult cuts (cut_err q) i i' x.
Proof.
  intro Eq. assert (Ec : cut_err q i = cut_err p i) by (unfold cut_err; rewrite Eq; reflexivity).
  destruct x as [X| |]; cbn [lresult]; unfold cuts; rewrite Ec; [|apply cuts_cut_err_fails..].
  intros (st1 & S1 & E & H). exists st1, S1. split; [apply cut_err_ok, E|exact H].
Qed.

Lemma keyval_line st S i t p a w c le r :
  keyval_tok t p a -> ws_tok w -> opt_comment c -> rest i = (t ++ w ++ c) ++ le ++ r -> lend le r ->
  depth i = 0 -> Inv st S ->
  lresult cuts (cut_err (keyval st)) i (adv ((t ++ w ++ c) ++ le) i) (dstep (dstate S) (SKeyVal p a)).
Proof.
  intros Ht Hw Hc H Hl Hd HI. pose proof (parse_keyval_det i t p a w c le r Ht Hw Hc H Hl) as Hp. rewrite Hd in Hp.
  unfold dstep, keyval. cbn [stmt_ok stmt_within]. destruct (Nat.ltb (length p) LIMIT).
  2:{ rewrite andb_false_r. apply cuts_cut_err_fails, try_map_fails, Hp. }
  rewrite andb_true_l. change (aval_ok a && within 0 a) with (vgoodb 0 a). destruct (vgoodb 0 a).
  2:{ apply cuts_cut_err, cuts_try_map, Hp. }
  destruct Hp as ([path [k it]] & Ep & [Hpp (v & Hit & Ha & _)]). cbn [fst snd] in Hpp, Hit, Ha. subst it.
  apply (lresult_cut_err _ _ _ _ _ eq_refl), (try_map_step _ _ _ _ _ (on_keyval_sp st path k (IValue v)) _ Ep eq_refl).
  rewrite <- (kv_stmt_den path k v p a Hpp Ha). apply sim_to_data, kv_step_sim, HI.
Qed.

Lemma header_line arr st S i t p w c le r :
  table_tok arr t p -> ws_tok w -> opt_comment c -> rest i = (t ++ w ++ c) ++ le ++ r -> lend le r -> Inv st S ->
  lresult cuts (cut_err (table st)) i (adv ((t ++ w ++ c) ++ le) i)
          (dstep (dstate S) (if arr then SArrHeader p else SHeader p)).
Proof.
  intros Ht Hw Hc H Hl HI. pose proof (header_text_det arr i t p w c le r Ht Hw Hc H Hl) as Hp.
  assert (Hr : rest i = t ++ ((w ++ c) ++ le ++ r)) by (rewrite H, <- !app_assoc; reflexivity).
  pose proof (table_dispatch arr st i t p _ Ht Hr) as Et. rewrite header_unfold in Et.
  assert (Ed : dstep (dstate S) (if arr then SArrHeader p else SHeader p)
               = if Nat.ltb (length p) LIMIT then spec_step false (dstate S) (stmt_map absv (hdr_stmt arr p)) else RInvalid)
    by (destruct arr; reflexivity).
  rewrite Ed. destruct (Nat.ltb (length p) LIMIT).
  2:{ apply cuts_cut_err. unfold cuts. rewrite Et. apply cuts_context, cuts_try_map, Hp. }
  destruct Hp as (kp & sp & tr & Eh & Hkp).
  assert (Hne : kp <> []).
  { intros ->. apply table_tok_eq in Ht as (w1 & k & w2 & _ & _ & Hk & _). apply (key_tok_nonempty _ _ Hk). rewrite <- Hkp. reflexivity. }
  destruct (pop_key_nonempty kp Hne) as (pre & k & Ep). pose proof (pop_key_some _ _ _ Ep) as Ekp. subst kp.
  unfold keys in Hkp. rewrite map_app in Hkp. cbn [map] in Hkp. fold (keys pre) in Hkp. rewrite <- Hkp.
  apply (lresult_cut_err _ _ _ _ _ Et), lresult_context.
  apply (try_map_step _ _ _ _ _ (on_header arr st (pre ++ [k]) tr sp) _ Eh eq_refl).
  apply sim_to_data, hdr_step_sim, HI.
Qed.
