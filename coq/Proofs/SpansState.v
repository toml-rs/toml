(* Proofs/SpansState.v — C14: the ParseState machine (state.rs) only stores spans it was given, or
   unions / widenings of spans that lie in range (range part).

   Invariant `st_in p st` at input position p:
     * the detached current table has a span (a, b) with a <= b <= p, and everything stored in it lies
       in [0, p];
     * everything stored in the root lies in [0, b] (the root is only touched when a header is met: it
       then receives the finished table and the keys of the new header, all left of the end of the
       header = the new b);  this is what makes the union taken for an array of tables well-formed;
     * the pending trailing text lies in [0, p], the path of the current table in [0, b].

   With each operation read as one descent with a named closure (Proofs/DocumentOps.v), the invariant takes one
   lemma per closure and one induction over descend_path (`wta_in`). *)
From TV Require Import Base.Prelude.
From TV Require Import Model.Tree Model.Parse Model.Document.
From TV Require Import Proofs.NoPanicState Proofs.SpansDefs Proofs.SpansBase Proofs.SpansLex Proofs.SpansValue.
From TV Require Import Proofs.DocumentOps.
Require Import Lia ZifyBool ZifyN ZifyNat.

Lemma tbl_in_set_items lo hi t m :
  tbl_in lo hi t = true -> items_in lo hi m = true -> tbl_in lo hi (t_set_items t m) = true.
Proof.
  rewrite !tbl_in_items. intros H Hm. apply andb3 in H as (_ & H2 & H3). destruct t as [i d im dt p sp].
  cbn [t_set_items t_items t_decor t_span] in *. rewrite Hm, H2, H3. reflexivity.
Qed.
Lemma tbl_in_set_span lo hi t sp :
  tbl_in lo hi t = true -> osp_in lo hi sp = true -> tbl_in lo hi (t_set_span t sp) = true.
Proof.
  rewrite !tbl_in_items. intros H Hs. apply andb3 in H as (H1 & H2 & _). destruct t as [i d im dt p sp0].
  cbn [t_set_span t_items t_decor t_span] in *. rewrite H1, H2, Hs. reflexivity.
Qed.
Lemma tbl_in_get_items lo hi t : tbl_in lo hi t = true -> items_in lo hi (t_items t) = true.
Proof. rewrite tbl_in_items. intro H. apply andb3 in H. tauto. Qed.

Lemma forallb_tbl_in_mono lo hi hi' ts : (hi <= hi')%N ->
  forallb (tbl_in lo hi) ts = true -> forallb (tbl_in lo hi') ts = true.
Proof.
  intros Hle. apply forallb_Forall_imp. apply Forall_forall. intros t _. apply tbl_in_mono; nlia.
Qed.

(* the table is in [lo, hi]; the closure may store spans up to hi' >= hi *)
Lemma wta_in lo hi hi' {X} (Q : X -> Prop) : (hi <= hi')%N ->
  forall path t dotted (f : tbl -> cres (tbl * X)),
  tbl_in lo hi t = true -> keys_in lo hi' path = true ->
  (forall p, tbl_in lo hi p = true -> cres_post (fun p' x => tbl_in lo hi' p' = true /\ Q x) (f p)) ->
  cres_post (fun t' x => tbl_in lo hi' t' = true /\ Q x) (with_table_at t path dotted f).
Proof.
  intros Hle path t dotted f Ht Hp Hf. destruct (with_table_at t path dotted f) as [[t' x]| |] eqn:E; [|exact I|exact I].
  revert Ht Hp. cbn [cres_post].
  assert (Hw : forall u, tbl_in lo hi u = true -> tbl_in lo hi' u = true) by (intro u; apply tbl_in_mono; nlia).
  apply (wta_ind dotted f x (fun p t t' => tbl_in lo hi t = true -> keys_in lo hi' p = true -> tbl_in lo hi' t' = true /\ Q x));
    [| | | |exact E].
  - intros u u' Eu Hu _. specialize (Hf u Hu). rewrite Eu in Hf. exact Hf.
  - intros u k p sub' G IH Hu Hk. cbn [keys_in forallb] in Hk. apply andb_true_iff in Hk as [Hk Hp]. destruct (IH eq_refl Hp) as [Hs Hq].
    split; [|exact Hq]. apply tbl_in_set_items; [apply Hw, Hu|].
    apply items_in_push; [apply tbl_in_get_items, Hw, Hu|exact Hk|exact Hs].
  - intros u k p k' sub sub' G IH Hu Hk. cbn [keys_in forallb] in Hk. apply andb_true_iff in Hk as [_ Hp].
    destruct (items_in_get _ _ _ _ _ _ (tbl_in_get_items _ _ _ Hu) G) as [_ Hit]. destruct (IH Hit Hp) as [Hs Hq].
    split; [|exact Hq]. apply tbl_in_set_items; [apply Hw, Hu|]. apply items_in_set; [apply tbl_in_get_items, Hw, Hu|exact Hs].
  - intros u k p k' ts sp last rinit last' G Rv IH Hu Hk. cbn [keys_in forallb] in Hk. apply andb_true_iff in Hk as [_ Hp].
    destruct (items_in_get _ _ _ _ _ _ (tbl_in_get_items _ _ _ Hu) G) as [_ Hit].
    rewrite item_in_aot in Hit. apply andb_true_iff in Hit as [Hts Hsp].
    rewrite <- forallb_rev, Rv in Hts. cbn [forallb] in Hts. apply andb_true_iff in Hts as [Hl Hr]. destruct (IH Hl Hp) as [Hs Hq].
    split; [|exact Hq]. apply tbl_in_set_items; [apply Hw, Hu|]. apply items_in_set; [apply tbl_in_get_items, Hw, Hu|].
    rewrite item_in_aot, forallb_rev. cbn [forallb]. rewrite Hs, (forallb_tbl_in_mono _ _ _ _ Hle Hr). cbn [andb].
    eapply osp_in_mono; [| |exact Hsp]; nlia.
Qed.

(* descend_path never touches the span of the table it starts from, if the closure does not *)
Lemma wta_span {X} : forall path t dotted (f : tbl -> cres (tbl * X)) t' x,
  (forall p p' y, f p = COk (p', y) -> t_span p' = t_span p) ->
  with_table_at t path dotted f = COk (t', x) -> t_span t' = t_span t.
Proof.
  intros path t dotted f t' x Hf. apply (wta_ind dotted f x (fun _ t t' => t_span t' = t_span t)).
  - intros u u'. apply Hf.
  - intros. apply span_set_items.
  - intros. apply span_set_items.
  - intros. apply span_set_items.
Qed.

(* ---- on_keyval ----------------------------------------------------------------------------------------------- *)
Definition st_in (p : N) (st : pstate) : Prop :=
  exists a b, t_span (st_current st) = Some (a, b) /\ (a <= b)%N /\ (b <= p)%N
              /\ tbl_in 0 b (st_root st) = true
              /\ tbl_in 0 p (st_current st) = true
              /\ osp_in 0 p (st_trailing st) = true
              /\ keys_in 0 b (st_path st) = true.

Lemma keys_in_mono lo hi lo' hi' l : (lo' <= lo)%N -> (hi <= hi')%N -> keys_in lo hi l = true -> keys_in lo' hi' l = true.
Proof.
  intros H1 H2. unfold keys_in. apply forallb_Forall_imp. apply Forall_forall. intros k _. apply key_in_mono; assumption.
Qed.

Lemma st_in_mono p p' st : (p <= p')%N -> st_in p st -> st_in p' st.
Proof.
  intros Hle (a & b & S & H1 & H2 & Hr & Hc & Ht & Hp). exists a, b. repeat split; auto; try nlia.
  - eapply tbl_in_mono; [| |exact Hc]; nlia.
  - eapply osp_in_mono; [| |exact Ht]; nlia.
Qed.

Lemma st_in_new : st_in 0 state_new.
Proof. exists 0%N, 0%N. cbn. repeat split; nlia. Qed.

Lemma st_in_on_ws p p' st : st_in p st -> (p <= p')%N -> st_in p' (on_ws st (p, p')).
Proof.
  intros (a & b & S & H1 & H2 & Hr & Hc & Ht & Hp) Hle. exists a, b. unfold on_ws; cbn [st_current st_root st_trailing st_path].
  repeat split; auto; try nlia.
  - eapply tbl_in_mono; [| |exact Hc]; nlia.
  - destruct (st_trailing st) as [old|]; cbn [osp_in] in *; unfold sp_in in *; cbn [fst snd]; nlia.
Qed.

Lemma key_in_leaf_prefix lo hi k r : key_in lo hi k = true -> d_prefix (k_leaf k) = Some r -> raw_in lo hi r = true.
Proof.
  unfold key_in, decor_in. intros H E. apply andb3 in H as (_ & H & _). apply andb_true_iff in H as [H _].
  rewrite E in H. exact H.
Qed.
Lemma key_in_leaf_suffix lo hi k : key_in lo hi k = true -> oraw_in lo hi (d_suffix (k_leaf k)) = true.
Proof. unfold key_in, decor_in. intros H. apply andb3 in H as (_ & H & _). apply andb_true_iff in H as [_ H]. exact H. Qed.

Lemma f_keyval_in lo hi k v top : key_in lo hi k = true -> item_in lo hi v = true ->
  forall t, tbl_in lo hi t = true -> cres_post (fun t' (_ : unit) => tbl_in lo hi t' = true /\ True) (f_keyval k v top t).
Proof.
  intros Hk Hv t Ht. unfold f_keyval. destruct (Bool.eqb _ _); [exact I|]. destruct (kv_get _ _); [exact I|].
  split; [|exact I]. apply tbl_in_set_items; [exact Ht|]. apply items_in_push; [apply tbl_in_get_items, Ht|exact Hk|exact Hv].
Qed.
Lemma f_keyval_span k v top t t' u : f_keyval k v top t = COk (t', u) -> t_span t' = t_span t.
Proof.
  unfold f_keyval. destruct (Bool.eqb _ _); [discriminate|]. destruct (kv_get _ _); [discriminate|].
  intro H. inversion H. apply span_set_items.
Qed.

(* the key in [p, mid], the pending trailing text left of p *)
Lemma kv_key_in p mid p' st k :
  osp_in 0 p (st_trailing st) = true -> (p <= mid)%N -> (mid <= p')%N -> key_in p mid k = true ->
  key_in 0 p' (kv_key st k) = true.
Proof.
  intros Ht L1 L2 Hk. unfold kv_key, kv_prefix.
  set (kpre := match d_prefix (k_leaf k) with Some r => raw_span r | None => None end).
  assert (Hkpre : osp_in p mid kpre = true).
  { subst kpre. destruct (d_prefix (k_leaf k)) as [r|] eqn:D; [|reflexivity]. apply (key_in_leaf_prefix _ _ _ _ Hk D). }
  apply key_in_set_leaf; [eapply key_in_mono; [| |exact Hk]; nlia|].
  unfold decor_in; cbn [d_prefix d_suffix oraw_in]. apply andb_true_iff. split.
  - destruct (st_trailing st) as [p0|], kpre as [kk|]; try reflexivity; apply raw_with_span_in;
      cbn [osp_in] in *; unfold sp_in in *; cbn [fst snd]; nlia.
  - eapply oraw_in_mono; [| |apply (key_in_leaf_suffix _ _ _ Hk)]; nlia.
Qed.

(* the open table spans (a, b), b <= p; the value lies in [mid, p']: the new span ends where the value ends *)
Lemma kv_cur_in a b p mid p' st v :
  t_span (st_current st) = Some (a, b) -> (a <= b)%N -> (b <= p)%N -> (p <= mid)%N -> (mid <= p')%N ->
  tbl_in 0 p (st_current st) = true -> item_in mid p' v = true ->
  exists b', t_span (kv_cur st v) = Some (a, b') /\ (b <= b')%N /\ (b' <= p')%N
             /\ tbl_in 0 p' (kv_cur st v) = true /\ (forall e, item_end v = Some e -> b' = e).
Proof.
  intros S H1 H2 L1 L2 Hc Hv. unfold kv_cur, item_end. rewrite S.
  assert (Hc' : tbl_in 0 p' (st_current st) = true) by (eapply tbl_in_mono; [| |exact Hc]; nlia).
  destruct (item_span v) as [vs|] eqn:V.
  - pose proof (item_span_in _ _ _ _ Hv V) as Hvs. unfold sp_in in Hvs. exists (snd vs). rewrite span_set_span. cbn [fst].
    repeat split; [nlia|nlia| |intros e X; inversion X; reflexivity].
    apply tbl_in_set_span; [exact Hc'|]. cbn [osp_in]. apply sp_in_pair; nlia.
  - exists b. repeat split; [exact S|nlia|nlia|exact Hc'|discriminate].
Qed.

(* the insertion: a key path and key in [p, mid], a value in [mid, p'] *)
Lemma on_keyval_in p mid p' st path k v st' :
  st_in p st -> (p <= mid)%N -> (mid <= p')%N ->
  keys_in p mid path = true -> key_in p mid k = true -> item_in mid p' v = true ->
  on_keyval st path k v = COk st' ->
  st_in p' st' /\ (forall e, item_end v = Some e -> exists a, t_span (st_current st') = Some (a, e)).
Proof.
  intros (a & b & S & H1 & H2 & Hr & Hc & Ht & Hp) L1 L2 Hpath Hk Hv E.
  apply on_keyval_inv in E as (cur' & W & ->).
  destruct (kv_cur_in a b p mid p' st v S H1 H2 L1 L2 Hc Hv) as (b' & S' & Hb1 & Hb2 & Hcur & Hend).
  assert (Hpath' : keys_in 0 p' path = true) by (eapply keys_in_mono; [| |exact Hpath]; nlia).
  assert (Hv' : item_in 0 p' v = true) by (eapply item_in_mono; [| |exact Hv]; nlia).
  assert (X : cres_post (fun t' (_ : unit) => tbl_in 0 p' t' = true /\ True) (COk (cur', tt))).
  { rewrite <- W. apply (wta_in 0 p' p' (fun _ => True) (N.le_refl _)); [exact Hcur|exact Hpath'|].
    apply f_keyval_in; [apply (kv_key_in p mid p'); assumption|exact Hv']. }
  destruct X as [X _].
  assert (S'' : t_span cur' = Some (a, b')).
  { rewrite <- S'. exact (wta_span _ _ _ _ _ _ (fun t t' y => f_keyval_span _ _ _ t t' y) W). }
  cbn [st_current]. split.
  - exists a, b'. cbn [st_current st_root st_trailing st_path]. repeat split; auto; try nlia.
    + eapply tbl_in_mono; [| |exact Hr]; nlia.
    + eapply keys_in_mono; [| |exact Hp]; nlia.
  - intros e He. exists a. rewrite S'', (Hend e He). reflexivity.
Qed.

(* the span bookkeeping of tables made of dotted keys *)
Lemma set_dotted_spans_in lo mid hi : forall path t ve,
  tbl_in lo hi t = true -> keys_in lo mid path = true -> (mid <= hi)%N ->
  (forall e, ve = Some e -> (mid <= e)%N /\ (e <= hi)%N) ->
  tbl_in lo hi (set_dotted_spans t path ve) = true /\ t_span (set_dotted_spans t path ve) = t_span t.
Proof.
  induction path as [|k ptl IH]; intros t ve Ht Hp Hmid Hve; cbn [set_dotted_spans]; [auto|].
  cbn [keys_in forallb] in Hp. apply andb_true_iff in Hp as [Hk Hptl].
  pose proof (tbl_in_get_items _ _ _ Ht) as Hi.
  destruct (kv_get (t_items t) (k_key k)) as [[k' it]|] eqn:G; [|auto].
  destruct (items_in_get _ _ _ _ _ _ Hi G) as [_ Hit]. destruct it as [|v|sub|ts sp]; auto.
  rewrite item_in_table in Hit. rewrite span_set_items. split; [|reflexivity].
  apply tbl_in_set_items; [exact Ht|]. apply items_in_set; [exact Hi|]. rewrite item_in_table.
  apply IH; auto. destruct (t_dotted sub); [|exact Hit]. destruct (key_span k) as [ks|] eqn:K; [|exact Hit].
  destruct ve as [e|]; [|exact Hit]. destruct (Hve e eq_refl) as [Ha Hb]. pose proof (key_span_in _ _ _ _ Hk K) as Hks.
  apply tbl_in_set_span; [exact Hit|]. rewrite tbl_in_items in Hit. apply andb3 in Hit as (_ & _ & Hsp).
  apply widen_in; [exact Hsp| | |exact Hb]; unfold sp_in in *; nlia.
Qed.

Lemma on_keyval_sp_in p mid p' st path k v st' :
  st_in p st -> (p <= mid)%N -> (mid <= p')%N ->
  keys_in p mid path = true -> key_in p mid k = true -> item_in mid p' v = true ->
  on_keyval_sp st path k v = COk st' -> st_in p' st'.
Proof.
  intros Hst L1 L2 Hpath Hk Hv E. apply on_keyval_sp_inv in E as (st1 & R & ->).
  destruct (on_keyval_in _ _ _ _ _ _ _ _ Hst L1 L2 Hpath Hk Hv R) as [(a & b & S & H1 & H2 & Hr & Hc & Ht & Hp) _].
  destruct (set_dotted_spans_in 0 mid p' path (st_current st1) (item_end v) Hc) as [D1 D2].
  - eapply keys_in_mono; [| |exact Hpath]; nlia.
  - exact L2.
  - intros e He. eapply item_end_in in He; [|exact Hv]. exact He.
  - exists a, b. cbn [st_current st_root st_trailing st_path]. rewrite D2. repeat split; auto.
Qed.

(* ---- finalize_table / start_table / start_array_table ------------------------------------------------------------ *)
Lemma f_fin_std_in b p k table parent : (b <= p)%N ->
  tbl_in 0 p table = true -> key_in 0 b k = true -> tbl_in 0 b parent = true ->
  cres_post (fun p' (_ : unit) => tbl_in 0 p p' = true /\ True) (f_fin_std k table parent).
Proof.
  intros Hle Ht Hk Hp. assert (Hp' : tbl_in 0 p parent = true) by (eapply tbl_in_mono; [| |exact Hp]; nlia).
  pose proof (tbl_in_get_items _ _ _ Hp') as Hi. unfold f_fin_std.
  destruct (kv_get (t_items parent) (k_key k)) as [[k' it]|].
  - destruct it as [|v|t|ts sp]; try exact I. destruct (t_implicit t); [|exact I]. cbn [cres_post]. split; [|exact I].
    apply tbl_in_set_items; [exact Hp'|]. apply items_in_set; [exact Hi|]. rewrite item_in_table. exact Ht.
  - cbn [cres_post]. split; [|exact I]. apply tbl_in_set_items; [exact Hp'|].
    apply items_in_push; [exact Hi| |rewrite item_in_table; exact Ht]. eapply key_in_mono; [| |exact Hk]; nlia.
Qed.

(* the span of an array of tables: from the start of its first element (left of b) to the end (b) of the last *)
Lemma union_span_in a b p x y : y = Some (a, b) -> (a <= b)%N -> (b <= p)%N -> osp_in 0 b x = true ->
  osp_in 0 p (union_span x y) = true.
Proof.
  intros -> Hab Hle Hx. destruct x as [x|]; [|reflexivity]. cbn [union_span osp_in fst snd] in *. unfold sp_in in *; cbn [fst snd]. nlia.
Qed.

Lemma f_fin_aot_in a b p k table parent : (a <= b)%N -> (b <= p)%N ->
  tbl_in 0 p table = true -> t_span table = Some (a, b) -> key_in 0 b k = true -> tbl_in 0 b parent = true ->
  cres_post (fun p' (_ : unit) => tbl_in 0 p p' = true /\ True) (f_fin_aot k table parent).
Proof.
  intros Hab Hle Ht S Hk Hp. assert (Hp' : tbl_in 0 p parent = true) by (eapply tbl_in_mono; [| |exact Hp]; nlia).
  pose proof (tbl_in_get_items _ _ _ Hp') as Hi. pose proof (tbl_in_get_items _ _ _ Hp) as Hib.
  assert (Hown : osp_in 0 b (t_span table) = true) by (rewrite S; apply sp_in_pair; nlia).
  unfold f_fin_aot. destruct (kv_get (t_items parent) (k_key k)) as [[k' it]|] eqn:G.
  - destruct (items_in_get _ _ _ _ _ _ Hib G) as [_ Hit]. destruct it as [|v|t|ts sp]; try exact I. cbv zeta.
    cbn [cres_post]. split; [|exact I]. apply tbl_in_set_items; [exact Hp'|]. apply items_in_set; [exact Hi|].
    rewrite item_in_aot in *. apply andb_true_iff in Hit as [Hts _]. rewrite forallb_app. cbn [forallb].
    rewrite (forallb_tbl_in_mono _ _ _ _ Hle Hts), Ht. cbn [andb].
    destruct ts as [|first tl]; cbn [app]; apply (union_span_in a b); try assumption.
    cbn [forallb] in Hts. apply andb_true_iff in Hts as [Hf _]. rewrite tbl_in_items in Hf. apply andb3 in Hf. tauto.
  - cbn [cres_post]. split; [|exact I]. apply tbl_in_set_items; [exact Hp'|].
    apply items_in_push; [exact Hi|eapply key_in_mono; [| |exact Hk]; nlia|].
    rewrite item_in_aot. cbn [forallb]. rewrite Ht. cbn [andb]. apply (union_span_in a b); assumption.
Qed.

Lemma pop_key_none (p : list key) : pop_key p = None -> p = [].
Proof. apply DocumentOps.pop_key_none. Qed.

Lemma finalize_in p st st' :
  st_in p st -> finalize_table st = COk st' ->
  tbl_in 0 p (st_root st') = true /\ st_trailing st' = st_trailing st /\ st_current st' = tbl_new /\ st_path st' = [].
Proof.
  intros (a & b & S & H1 & H2 & Hr & Hc & Ht & Hp) E. apply finalize_inv in E as (root' & -> & E).
  cbn [st_current st_root st_trailing st_path]. repeat split.
  destruct (pop_key (st_path st)) as [[ppath k]|] eqn:P; [|destruct E as [_ ->]; exact Hc].
  destruct (pop_key_in _ _ _ _ _ Hp P) as [Hpp Hk].
  assert (X : cres_post (fun t' (_ : unit) => tbl_in 0 p t' = true /\ True) (COk (root', tt))); [|apply X].
  rewrite <- E. apply (wta_in 0 b p (fun _ => True) H2); [exact Hr|eapply keys_in_mono; [| |exact Hpp]; nlia|].
  intros parent Hpar. destruct (st_is_array st); [apply (f_fin_aot_in a b p); assumption|apply (f_fin_std_in b p); assumption].
Qed.

(* the closures of a header: the tree in [0, p], the keys of the header in [0, e] *)
Lemma f_start_aot_in p e k : (p <= e)%N -> key_in 0 e k = true ->
  forall parent, tbl_in 0 p parent = true ->
  cres_post (fun p' (_ : unit) => tbl_in 0 e p' = true /\ True) (f_start_aot k parent).
Proof.
  intros L Hk parent Hpar. assert (Hpar' : tbl_in 0 e parent = true) by (eapply tbl_in_mono; [| |exact Hpar]; nlia).
  unfold f_start_aot. destruct (kv_get (t_items parent) (k_key k)) as [[k' it]|].
  - destruct it; try exact I. cbn [cres_post]. auto.
  - split; [|exact I]. apply tbl_in_set_items; [exact Hpar'|].
    apply items_in_push; [apply tbl_in_get_items, Hpar'|exact Hk|reflexivity].
Qed.
Lemma f_start_std_in p e k : (p <= e)%N ->
  forall parent, tbl_in 0 p parent = true ->
  cres_post (fun p' x => tbl_in 0 e p' = true /\ match x with Some t => tbl_in 0 p t = true | None => True end)
            (f_start_std k parent).
Proof.
  intros L parent Hpar. assert (Hpar' : tbl_in 0 e parent = true) by (eapply tbl_in_mono; [| |exact Hpar]; nlia).
  unfold f_start_std. destruct (kv_get (t_items parent) (k_key k)) as [[k' it]|] eqn:G; [|cbn [cres_post]; auto].
  destruct (items_in_get _ _ _ _ _ _ (tbl_in_get_items _ _ _ Hpar) G) as [_ Hit].
  destruct it as [|v|t|ts sp]; try exact I. destruct (t_implicit t && negb (t_dotted t)); [|exact I].
  split; [|exact Hit]. apply tbl_in_set_items; [exact Hpar'|]. apply items_in_remove, tbl_in_get_items, Hpar'.
Qed.

(* a header: the state after finalize_table and take_trailing (current = tbl_new, path = []), the header
   keys in [p, e], its span (p, e), the trailing text of the header line in [e, p'] *)
Lemma start_in (ia : bool) p e p' st path dec st' :
  tbl_in 0 p (st_root st) = true -> st_current st = tbl_new -> (p <= e)%N -> (e <= p')%N ->
  keys_in p e path = true -> decor_in 0 p' dec = true ->
  (if ia then start_array_table st path dec (p, e) else start_table st path dec (p, e)) = COk st' ->
  st_trailing st = None -> st_in p' st'.
Proof.
  intros Hr Hc L1 L2 Hpath Hdec E Htr.
  assert (Hpath0 : keys_in 0 e path = true) by (eapply keys_in_mono; [| |exact Hpath]; nlia).
  assert (Hsp : sp_in 0 p' (p, e) = true) by (apply sp_in_pair; nlia).
  destruct ia.
  - apply start_array_table_inv in E as (_ & _ & ppath & k & root' & P & W & ->).
    destruct (pop_key_in _ _ _ _ _ Hpath0 P) as [Hpp Hk].
    assert (X : cres_post (fun t' (_ : unit) => tbl_in 0 e t' = true /\ True) (COk (root', tt))).
    { rewrite <- W. apply (wta_in 0 p e (fun _ => True) L1); [exact Hr|exact Hpp|apply f_start_aot_in; assumption]. }
    destruct X as [X _]. exists p, e. unfold open_table. cbn [st_current st_root st_trailing st_path t_span].
    rewrite Hc, Htr. cbn [t_items tbl_new tbl_in forallb]. rewrite Hdec. repeat split; auto.
  - apply start_table_inv in E as (_ & _ & ppath & k & root' & tk & P & W & ->).
    destruct (pop_key_in _ _ _ _ _ Hpath0 P) as [Hpp Hk].
    assert (X : cres_post (fun t' x => tbl_in 0 e t' = true /\ match x with Some t => tbl_in 0 p t = true | None => True end)
                          (COk (root', tk))).
    { rewrite <- W. apply (wta_in 0 p e _ L1); [exact Hr|exact Hpp|apply f_start_std_in, L1]. }
    destruct X as [X Xt]. exists p, e. unfold open_table. cbn [st_current st_root st_trailing st_path t_span].
    rewrite Htr. repeat split; auto. rewrite tbl_in_items. cbn [t_items t_decor t_span osp_in].
    rewrite Hdec, Hsp, !andb_true_r. destruct tk as [t|].
    + eapply items_in_mono; [| |apply tbl_in_get_items, Xt]; nlia.
    + rewrite Hc. reflexivity.
Qed.

Lemma on_header_in (ia : bool) p e p' st path trailing st' :
  st_in p st -> (p <= e)%N -> (e <= p')%N -> keys_in p e path = true -> sp_in e p' trailing = true ->
  on_header ia st path trailing (p, e) = COk st' -> st_in p' st'.
Proof.
  intros Hst L1 L2 Hpath Htrail E. unfold on_header in E. destruct path as [|k0 ptl] eqn:Ep; [discriminate|]. rewrite <- Ep in *.
  destruct (finalize_table st) as [st1| |] eqn:F; try discriminate E.
  destruct (finalize_in _ _ _ Hst F) as (Hr & Htr & Hc & Hp). unfold take_trailing in E.
  destruct Hst as (a & b & S & H1 & H2 & _ & _ & Ht & _).
  eapply (start_in ia p e p'); [| | | | | |exact E|]; cbn [st_root st_current st_trailing]; auto.
  apply decor_in_new.
  - rewrite Htr. destruct (st_trailing st) as [sp|]; [|reflexivity]. apply raw_with_span_in.
    cbn [osp_in] in Ht. unfold sp_in in *. nlia.
  - apply raw_with_span_in. unfold sp_in in *. nlia.
Qed.
