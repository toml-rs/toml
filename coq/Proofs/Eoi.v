(* Proofs/Eoi.v — the stand-alone entry points (parse_value / parse_key / parse_key_path) run
   `terminated(P, end_of_input).parse(input)` (Model/Document.v: terminated_eoi, end_of_input).
   This file relates `parse_all (terminated_eoi p)` to `parse_all p`:

     * the same inputs are accepted, with the same result            (parse_all_eoi_done)
     * the same inputs reach a panic site, the same one              (parse_all_eoi_panicked)
     * a rejection is a rejection of `parse_all p` at the same offset, with the same cause, and
       a context is never lost                                       (parse_all_eoi_failed)
     * the only difference: trailing input after a successful `p` is rejected WITH a
       context ("expected end of input") instead of with the bare error of `Parser::parse`'s
       own eof check                                                  (parse_all_eoi_trailing)

   The remaining lemmas are rewriting forms for proofs about the entry points that reason on
   `p (new_input s)`. *)
From Coq Require Import List NArith.
From TV Require Import Base.Prelude Base.Winnow Model.Parse Model.Document.
Import ListNotations.

(* ---- the two parsers, on one input ------------------------------------------------------------ *)
Lemma end_of_input_nil i : rest i = [] -> end_of_input i = Ok tt i.
Proof. intro R. unfold end_of_input, context, eof. rewrite R. reflexivity. Qed.

Lemma end_of_input_cons i b r : rest i = b :: r -> end_of_input i = Bt (mkErr None true) i.
Proof. intro R. unfold end_of_input, context, eof. rewrite R. reflexivity. Qed.

Lemma terminated_eoi_unfold {A} (p : parser A) i :
  terminated_eoi p i =
  match p i with
  | Ok a i' => match rest i' with [] => Ok a i' | _ :: _ => Bt (mkErr None true) i' end
  | Bt e i' => Bt e i'
  | Cut e i' => Cut e i'
  | Panic st => Panic st
  end.
Proof.
  unfold terminated_eoi, bind. destruct (p i) as [a i'|? ?|? ?|?]; try reflexivity.
  destruct (rest i') eqn:R; [rewrite (end_of_input_nil _ R)|rewrite (end_of_input_cons _ _ _ R)]; reflexivity.
Qed.

Lemma terminated_eoi_ok {A} (p : parser A) i a i' :
  p i = Ok a i' -> rest i' = [] -> terminated_eoi p i = Ok a i'.
Proof. intros E R. rewrite terminated_eoi_unfold, E, R. reflexivity. Qed.

Lemma terminated_eoi_inv {A} (p : parser A) i a i' :
  terminated_eoi p i = Ok a i' -> p i = Ok a i' /\ rest i' = [].
Proof.
  rewrite terminated_eoi_unfold. destruct (p i) as [x j|? ?|? ?|?]; try discriminate.
  destruct (rest j) eqn:R; [|discriminate]. intro H. injection H as -> ->. auto.
Qed.

Lemma terminated_eoi_trailing {A} (p : parser A) i a i' :
  p i = Ok a i' -> rest i' <> [] -> terminated_eoi p i = Bt (mkErr None true) i'.
Proof.
  intros E R. rewrite terminated_eoi_unfold, E. destruct (rest i'); [contradiction|reflexivity].
Qed.

Lemma terminated_eoi_bt {A} (p : parser A) i e i' : p i = Bt e i' -> terminated_eoi p i = Bt e i'.
Proof. intro E. rewrite terminated_eoi_unfold, E. reflexivity. Qed.
Lemma terminated_eoi_cut {A} (p : parser A) i e i' : p i = Cut e i' -> terminated_eoi p i = Cut e i'.
Proof. intro E. rewrite terminated_eoi_unfold, E. reflexivity. Qed.
Lemma terminated_eoi_panic {A} (p : parser A) i st : p i = Panic st -> terminated_eoi p i = Panic st.
Proof. intro E. rewrite terminated_eoi_unfold, E. reflexivity. Qed.

(* ---- both `parse_all`s as a function of `p (new_input s)` -------------------------------------- *)
Lemma parse_all_unfold {A} (p : parser A) s :
  parse_all p s =
  match p (new_input s) with
  | Ok a i => match rest i with [] => Done a | _ :: _ => Failed err0 (pos i) end
  | Bt e i => Failed e (pos i)
  | Cut e i => Failed e (pos i)
  | Panic st => Panicked st
  end.
Proof.
  unfold parse_all, bind. destruct (p (new_input s)) as [a i|? ?|? ?|?]; try reflexivity.
  unfold eof, ret. destruct (rest i); reflexivity.
Qed.

Lemma parse_all_eoi_unfold {A} (p : parser A) s :
  parse_all (terminated_eoi p) s =
  match p (new_input s) with
  | Ok a i => match rest i with [] => Done a | _ :: _ => Failed (mkErr None true) (pos i) end
  | Bt e i => Failed e (pos i)
  | Cut e i => Failed e (pos i)
  | Panic st => Panicked st
  end.
Proof.
  rewrite parse_all_unfold, terminated_eoi_unfold.
  destruct (p (new_input s)) as [a i|e i|e i|st]; try reflexivity.
  destruct (rest i) eqn:R; [rewrite R|]; reflexivity.
Qed.

(* ---- the bridge --------------------------------------------------------------------------------- *)
Theorem parse_all_eoi_done {A} (p : parser A) s a :
  parse_all (terminated_eoi p) s = Done a <-> parse_all p s = Done a.
Proof.
  rewrite parse_all_eoi_unfold, parse_all_unfold.
  destruct (p (new_input s)) as [x i|? ?|? ?|?]; try (split; discriminate).
  destruct (rest i); split; trivial; discriminate.
Qed.

Theorem parse_all_eoi_panicked {A} (p : parser A) s st :
  parse_all (terminated_eoi p) s = Panicked st <-> parse_all p s = Panicked st.
Proof.
  rewrite parse_all_eoi_unfold, parse_all_unfold.
  destruct (p (new_input s)) as [x i|? ?|? ?|?]; try (split; discriminate).
  - destruct (rest i); split; discriminate.
  - split; trivial.
Qed.

Theorem parse_all_eoi_failed {A} (p : parser A) s e at_ :
  parse_all (terminated_eoi p) s = Failed e at_ ->
  exists e0, parse_all p s = Failed e0 at_ /\ e_cause e = e_cause e0 /\ (e_ctx e0 = true -> e_ctx e = true).
Proof.
  rewrite parse_all_eoi_unfold, parse_all_unfold.
  destruct (p (new_input s)) as [x i|e1 i|e1 i|?]; try discriminate.
  - destruct (rest i); [discriminate|]. intro H. injection H as <- <-.
    exists err0. repeat split.
  - intro H. injection H as <- <-. exists e1. auto.
  - intro H. injection H as <- <-. exists e1. auto.
Qed.

(* the converse direction: nothing that `parse_all p` rejects is accepted, offsets and causes stay *)
Theorem parse_all_failed_eoi {A} (p : parser A) s e0 at_ :
  parse_all p s = Failed e0 at_ ->
  exists e, parse_all (terminated_eoi p) s = Failed e at_ /\ e_cause e = e_cause e0 /\ (e_ctx e0 = true -> e_ctx e = true).
Proof.
  rewrite parse_all_eoi_unfold, parse_all_unfold.
  destruct (p (new_input s)) as [x i|e1 i|e1 i|?]; try discriminate.
  - destruct (rest i); [discriminate|]. intro H. injection H as <- <-.
    exists (mkErr None true). repeat split.
  - intro H. injection H as <- <-. exists e1. auto.
  - intro H. injection H as <- <-. exists e1. auto.
Qed.

(* the sharper fact: trailing input after a complete `p` is rejected WITH a context *)
Theorem parse_all_eoi_trailing {A} (p : parser A) s a i :
  p (new_input s) = Ok a i -> rest i <> [] ->
  parse_all (terminated_eoi p) s = Failed (mkErr None true) (pos i).
Proof.
  intros E R. rewrite parse_all_eoi_unfold, E. destruct (rest i); [contradiction|reflexivity].
Qed.

(* ... where `Parser::parse` alone rejects it with the bare error *)
Lemma parse_all_trailing {A} (p : parser A) s a i :
  p (new_input s) = Ok a i -> rest i <> [] -> parse_all p s = Failed err0 (pos i).
Proof.
  intros E R. rewrite parse_all_unfold, E. destruct (rest i); [contradiction|reflexivity].
Qed.

(* both at once: the one place where the two differ *)
Theorem parse_all_eoi_trailing_both {A} (p : parser A) s a i :
  p (new_input s) = Ok a i -> rest i <> [] ->
  parse_all (terminated_eoi p) s = Failed (mkErr None true) (pos i)
  /\ parse_all p s = Failed err0 (pos i).
Proof. intros H R. split; [exact (parse_all_eoi_trailing p s a i H R)|exact (parse_all_trailing p s a i H R)]. Qed.

(* when `p` itself fails, the two agree on the error as well *)
Lemma parse_all_eoi_bt {A} (p : parser A) s e i :
  p (new_input s) = Bt e i -> parse_all (terminated_eoi p) s = Failed e (pos i).
Proof. intro E. rewrite parse_all_eoi_unfold, E. reflexivity. Qed.
Lemma parse_all_eoi_cut {A} (p : parser A) s e i :
  p (new_input s) = Cut e i -> parse_all (terminated_eoi p) s = Failed e (pos i).
Proof. intro E. rewrite parse_all_eoi_unfold, E. reflexivity. Qed.

(* ---- rewriting forms ------------------------------------------------------------------------------ *)
(* accepted: `p` consumed everything *)
Lemma parse_all_eoi_ok {A} (p : parser A) s a i :
  p (new_input s) = Ok a i -> rest i = [] -> parse_all (terminated_eoi p) s = Done a.
Proof. intros E R. rewrite parse_all_eoi_unfold, E, R. reflexivity. Qed.

Lemma parse_all_eoi_done_inv {A} (p : parser A) s a :
  parse_all (terminated_eoi p) s = Done a -> exists i, p (new_input s) = Ok a i /\ rest i = [].
Proof.
  rewrite parse_all_eoi_unfold. destruct (p (new_input s)) as [x i|? ?|? ?|?]; try discriminate.
  destruct (rest i) eqn:R; [|discriminate]. intro H. injection H as ->. eauto.
Qed.

(* through lift_outcome (the form of the three entry points) *)
Lemma lift_eoi_ok {A} (p : parser A) s a :
  lift_outcome (parse_all (terminated_eoi p) s) = POk a <-> lift_outcome (parse_all p s) = POk a.
Proof.
  pose proof (parse_all_eoi_done p s a) as [H1 H2].
  split; intro H.
  - destruct (parse_all (terminated_eoi p) s) as [x| |] eqn:E; try discriminate.
    injection H as ->. rewrite (H1 eq_refl). reflexivity.
  - destruct (parse_all p s) as [x| |] eqn:E; try discriminate.
    injection H as ->. rewrite (H2 eq_refl). reflexivity.
Qed.

Lemma lift_eoi_panic {A} (p : parser A) s st :
  lift_outcome (parse_all (terminated_eoi p) s) = PPanic st <-> lift_outcome (parse_all p s) = PPanic st.
Proof.
  pose proof (parse_all_eoi_panicked p s st) as [H1 H2].
  split; intro H.
  - destruct (parse_all (terminated_eoi p) s) as [|? ?|x] eqn:E; try discriminate.
    injection H as ->. rewrite (H1 eq_refl). reflexivity.
  - destruct (parse_all p s) as [|? ?|x] eqn:E; try discriminate.
    injection H as ->. rewrite (H2 eq_refl). reflexivity.
Qed.

Lemma lift_eoi_err {A} (p : parser A) s e at_ :
  lift_outcome (parse_all (terminated_eoi p) s) = PErr e at_ ->
  exists e0, lift_outcome (parse_all p s) = PErr e0 at_ /\ e_cause e = e_cause e0 /\ (e_ctx e0 = true -> e_ctx e = true).
Proof.
  destruct (parse_all (terminated_eoi p) s) as [|e1 a1|] eqn:E; try discriminate.
  cbn [lift_outcome]. intro H. injection H as <- <-.
  destruct (parse_all_eoi_failed p s e1 a1 E) as (e0 & E0 & Hc & Hx).
  exists e0. rewrite E0. auto.
Qed.

(* the three entry points, folded *)
Lemma parse_value_raw_eq s : parse_value_raw s = lift_outcome (parse_all (terminated_eoi value_) s).
Proof. reflexivity. Qed.
Lemma parse_key_eq s : parse_key s = lift_outcome (parse_all (terminated_eoi simple_key) s).
Proof. reflexivity. Qed.
Lemma parse_key_path_eq s : parse_key_path s = lift_outcome (parse_all (terminated_eoi key_) s).
Proof. reflexivity. Qed.

(* ---- non-vacuity: `1 2` as a value, `a b` as a key, `a.b c` as a key path ---------------------------
   rejected at the same offset with and without `terminated_eoi`, with a context only with it *)
Example eoi_ex_value :
  parse_value_raw [x31; x20; x32] = PErr (mkErr None true) (Some 1%N)
  /\ lift_outcome (parse_all value_ [x31; x20; x32]) = PErr err0 (Some 1%N).
Proof. vm_compute. split; reflexivity. Qed.
Example eoi_ex_key :
  parse_key [x61; x20; x62] = PErr (mkErr None true) (Some 1%N)
  /\ lift_outcome (parse_all simple_key [x61; x20; x62]) = PErr err0 (Some 1%N).
Proof. vm_compute. split; reflexivity. Qed.
Example eoi_ex_key_path :
  parse_key_path [x61; x2e; x62; x20; x63] = PErr (mkErr None true) (Some 4%N)
  /\ lift_outcome (parse_all key_ [x61; x2e; x62; x20; x63]) = PErr err0 (Some 4%N).
Proof. vm_compute. split; reflexivity. Qed.
