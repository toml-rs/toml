(* Proofs/WFPrintKey.v — WF backbone: trivia slots and key paths.
   `encode_key_path ks dflt` of well-formed keys is  <leaf prefix> K <leaf suffix>  with K a `key` of the grammar
   denoting the keys' texts; the leaf decor is legal trivia for its slot. *)
From TV Require Import Base.Prelude Gen.Consts Spec.Lex Spec.Syntax Spec.WF.
From TV Require Import Model.Tree Model.Encode.
From TV Require Import Proofs.WFTok.
From TV Require Import Proofs.ModelFacts.
Require Import Lia.

(* ---- trivia ------------------------------------------------------------------------------------------------------ *)
Lemma ws_sp : ws_tok [x20]. Proof. reflexivity. Qed.
Lemma ws_app a b : ws_tok a -> ws_tok b -> ws_tok (a ++ b).
Proof. unfold ws_tok, all. intros H1 H2. rewrite forallb_app, H1, H2. reflexivity. Qed.

Lemma ws_wscn w : ws_tok w -> wscn_tok w.
Proof.
  unfold ws_tok, all. induction w as [|b w IH]; [constructor|]. cbn [forallb]. intro H. apply andb_true_iff in H as [H1 H2].
  apply wscn_ws; auto.
Qed.
Lemma ws_slot sl w : ws_tok w -> slot_ok sl w.
Proof.
  intro H. destruct sl; cbn [slot_ok]; [exact H|apply ws_line_trail, H|apply ln_last, H|apply ws_wscn, H|apply dt_last, ws_line_trail, H].
Qed.

Lemma lines_app a b : lines_tok a -> lines_tok b -> lines_tok (a ++ b).
Proof.
  intros Ha Hb. induction Ha as [w Hw|w c t Hw Hc Ht IH].
  - destruct Hb as [w' Hw'|w' c' t' Hw' Hc' Ht'].
    + apply ln_last, ws_app; assumption.
    + rewrite app_assoc. apply ln_more; [apply ws_app; assumption|exact Hc'|exact Ht'].
  - rewrite <- !app_assoc. apply ln_more; [exact Hw|exact Hc|]. exact IH.
Qed.
Lemma lines_ws a w : lines_tok a -> ws_tok w -> lines_tok (a ++ w).
Proof. intros Ha Hw. apply lines_app; [exact Ha|apply ln_last, Hw]. Qed.

(* what a decor prints: the stored text (CR stripped), or the default *)
Lemma raw_encode_plain r dflt : match r with RSpanned _ _ => False | _ => True end -> raw_encode r dflt = raw_encode r [].
Proof. destruct r; [reflexivity|reflexivity|contradiction]. Qed.
Lemma raw_ok_plain sl r : raw_ok sl r -> match r with RSpanned _ _ => False | _ => True end.
Proof. destruct r; cbn; auto. Qed.
Lemma raw_ok_enc sl r dflt : raw_ok sl r -> slot_ok sl (raw_encode r dflt).
Proof. intro H. rewrite (raw_encode_plain r dflt (raw_ok_plain _ _ H)). destruct r; [exact H|exact H|contradiction]. Qed.
Lemma decor_prefix_ok sl d dflt : oraw_ok sl (d_prefix d) -> slot_ok sl dflt -> slot_ok sl (decor_prefix d dflt).
Proof. unfold decor_prefix. destruct (d_prefix d) as [r|]; cbn [oraw_ok]; [intros H _; apply raw_ok_enc, H|auto]. Qed.
Lemma decor_suffix_ok sl d dflt : oraw_ok sl (d_suffix d) -> slot_ok sl dflt -> slot_ok sl (decor_suffix d dflt).
Proof. unfold decor_suffix. destruct (d_suffix d) as [r|]; cbn [oraw_ok]; [intros H _; apply raw_ok_enc, H|auto]. Qed.

(* ---- key paths ------------------------------------------------------------------------------------------------------ *)
(* what every key of a path needs: a repr that spells it, blanks as dotted decor *)
Definition key_mid (k : key) : Prop := key_repr_ok k /\ decor_ok SWs SWs (k_dotted k).
Lemma key_wf_mid line k : key_wf line k -> key_mid k.
Proof. intros (H1 & H2 & _). split; assumption. Qed.

Definition ktexts (ks : list key) : list bytes := map k_key ks.

Lemma ekp_tail leaf dflt : forall ks k,
  key_mid k -> Forall key_mid ks ->
  exists K, key_display_repr k
            ++ (match ks with [] => decor_suffix leaf (snd dflt) | _ => decor_suffix (k_dotted k) (snd DEFAULT_KEY_PATH_DECOR) end)
            ++ encode_key_path_loop leaf dflt false ks
            = K ++ decor_suffix leaf (snd dflt)
            /\ key_tok K (k_key k :: ktexts ks).
Proof.
  induction ks as [|k2 tl IH]; intros k Hk Hks.
  - exists (key_display_repr k). cbn [encode_key_path_loop ktexts map]. rewrite app_nil_r. split; [reflexivity|].
    apply key_one, key_text_tok, Hk.
  - inversion Hks as [|? ? Hk2 Htl]; subst. destruct (IH k2 Hk2 Htl) as (K2 & E2 & T2).
    cbn [encode_key_path_loop].
    assert (Elast : (match tl with [] => true | _ :: _ => false end) = match tl with [] => true | _ => false end) by reflexivity.
    exists (key_display_repr k ++ decor_suffix (k_dotted k) (snd DEFAULT_KEY_PATH_DECOR)
            ++ [x2e] ++ decor_prefix (k_dotted k2) (fst DEFAULT_KEY_PATH_DECOR) ++ K2).
    split.
    + rewrite <- !app_assoc. do 4 f_equal. rewrite <- E2. destruct tl; reflexivity.
    + cbn [ktexts map]. apply key_dot; [apply key_text_tok, Hk| | |exact T2].
      * destruct Hk as [_ [_ Hs]]. apply (decor_suffix_ok SWs); [exact Hs|reflexivity].
      * destruct Hk2 as [_ [Hp _]]. apply (decor_prefix_ok SWs); [exact Hp|reflexivity].
Qed.

Lemma last_rev {A} (l : list A) x tl : rev l = x :: tl -> l = rev tl ++ [x].
Proof. intro H. apply (f_equal (@rev A)) in H. rewrite rev_involutive in H. exact H. Qed.

Lemma rev_last_in {A} (l : list A) : l <> [] -> exists x tl, rev l = x :: tl /\ In x l.
Proof.
  intro H. destruct (rev l) as [|x tl] eqn:R.
  - apply (f_equal (@length A)) in R. rewrite rev_length in R. destruct l; [congruence|discriminate].
  - exists x, tl. split; [reflexivity|]. apply in_rev. rewrite R. left. reflexivity.
Qed.

(* the loop from the first key on: <leaf prefix> K <leaf suffix> *)
Lemma ekp_loop_shape leaf dflt ks : ks <> [] -> Forall key_mid ks ->
  exists K, encode_key_path_loop leaf dflt true ks = decor_prefix leaf (fst dflt) ++ K ++ decor_suffix leaf (snd dflt)
            /\ key_tok K (ktexts ks).
Proof.
  destruct ks as [|k tl]; [congruence|]. intros _ Hks. inversion Hks as [|? ? Hk Htl]; subst.
  destruct (ekp_tail leaf dflt tl k Hk Htl) as (K & E & T). exists K. split; [|exact T].
  cbn [encode_key_path_loop]. f_equal. rewrite <- E. destruct tl; reflexivity.
Qed.

(* encode_key_path: the leaf decor is that of the last key *)
Lemma encode_key_path_shape ks dflt : ks <> [] -> Forall key_mid ks ->
  exists last K, In last ks
    /\ encode_key_path ks dflt = decor_prefix (k_leaf last) (fst dflt) ++ K ++ decor_suffix (k_leaf last) (snd dflt)
    /\ key_tok K (ktexts ks).
Proof.
  intros Hne Hks. destruct (rev_last_in ks Hne) as (last & rtl & R & Hin). unfold encode_key_path. rewrite R.
  destruct (ekp_loop_shape (k_leaf last) dflt ks Hne Hks) as (K & E & T). exists last, K. auto.
Qed.

(* the same for the path inside a [header]: the leaf prefix is written inside the brackets only if blank *)
Lemma encode_header_key_path_shape ks dflt : ks <> [] -> Forall key_mid ks ->
  exists last rtl K, rev ks = last :: rtl /\ In last ks
    /\ encode_header_key_path ks dflt
       = (if raw_blank (d_prefix (k_leaf last)) then decor_prefix (k_leaf last) (fst dflt) else fst dflt)
         ++ K ++ decor_suffix (k_leaf last) (snd dflt)
    /\ key_tok K (ktexts ks).
Proof.
  intros Hne Hks. destruct (rev_last_in ks Hne) as (last & rtl & R & Hin). unfold encode_header_key_path. rewrite R. cbv zeta.
  destruct (ekp_loop_shape (if raw_blank (d_prefix (k_leaf last)) then k_leaf last else mkDecor None (d_suffix (k_leaf last)))
                           dflt ks Hne Hks) as (K & E & T).
  exists last, rtl, K. split; [reflexivity|]. split; [exact Hin|]. split; [|exact T].
  rewrite E. destruct (raw_blank (d_prefix (k_leaf last))); reflexivity.
Qed.

(* a blank raw string prints as blanks *)
Lemma strip_cr_ws s : forallb (fun b => byte_eqb b x20 || byte_eqb b x09) s = true -> ws_tok (strip_cr s).
Proof.
  unfold ws_tok, all, strip_cr. induction s as [|b s IH]; [reflexivity|]. cbn [forallb filter]. intro H.
  apply andb_true_iff in H as [H1 H2]. destruct (negb (byte_eqb b x0d)); [|exact (IH H2)]. cbn [forallb]. rewrite (IH H2), andb_true_r.
  apply orb_true_iff in H1 as [H1|H1]; apply byte_eqb_eq in H1; subst; reflexivity.
Qed.
Lemma blank_prefix_ws d dflt : raw_blank (d_prefix d) = true -> ws_tok dflt ->
  match d_prefix d with Some (RSpanned _ _) => False | _ => True end -> ws_tok (decor_prefix d dflt).
Proof.
  unfold decor_prefix, raw_blank. destruct (d_prefix d) as [[|s|a b]|]; intros H Hd Hp.
  - reflexivity.
  - unfold raw_encode. apply strip_cr_ws, H.
  - contradiction.
  - exact Hd.
Qed.
