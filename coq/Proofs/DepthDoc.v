(* Proofs/DepthDoc.v — lemmas behind Props/C05.v, part 4: the document.
   Invariant of the parse state: a table sitting `h` keys below the root (`tb h t`)
     - has h <= 2 * LIMIT - 3   (a header path has < LIMIT keys, a dotted key adds <= LIMIT - 2 tables),
     - holds values at most 2 * LIMIT - 3 deep (Proofs/DepthValue.v),
     - holds arrays of tables only while h + 1 < LIMIT (only headers create them),
     - holds tables / array-of-tables elements that satisfy the invariant at h + 1.
   `tb 0 root`, `tb (length path) current` and `length path < LIMIT` are preserved by every step of
   the document loop; `tb 0 t` gives `tbl_depth t <= 5 * LIMIT - 6`. *)
From Coq Require Import List Bool Arith NArith ZArith Lia.
From Coq.Strings Require Import Byte.
From TV Require Import Base.Winnow Gen.Consts.
From TV Require Import Model.Tree Model.Parse Model.Document.
From TV Require Import Proofs.Eoi Proofs.VisitComplete Proofs.NoPanicBase Proofs.NoPanicState Proofs.NoPanicDoc Proofs.DepthBase Proofs.DepthValue.
From TV Require Import Proofs.KvFacts.
From TV Require Import Proofs.ModelFacts.
From TV Require Import Proofs.DocumentOps.
Import ListNotations.
From TV Require Import Base.WinnowFacts.

(* deepest level (number of keys from the root) at which a table can sit *)
Definition HMAX : nat := 2 * LIMIT - 3.
(* deepest value *)
Definition VMAX : nat := 2 * LIMIT - 3.

Inductive tb : nat -> tbl -> Prop :=
| tb_intro h items d im dt p s :
    h <= HMAX ->
    Forall (fun kv : key * item => ib h (snd kv)) items ->
    tb h (Tbl items d im dt p s)
with ib : nat -> item -> Prop :=
| ib_none h : ib h INone
| ib_value h v : value_depth v <= VMAX -> ib h (IValue v)
| ib_table h s : tb (S h) s -> ib h (ITable s)
| ib_aot h ts sp : S h < LIMIT -> Forall (tb (S h)) ts -> ib h (IAot ts sp).

Lemma tb_level h t : tb h t -> h <= HMAX.
Proof. intro H. inversion H; assumption. Qed.

Lemma tb_items h t : tb h t -> Forall (fun kv : key * item => ib h (snd kv)) (t_items t).
Proof. intro H. inversion H; subst. cbn [t_items]. assumption. Qed.

Lemma tb_set_items h t items :
  tb h t -> Forall (fun kv : key * item => ib h (snd kv)) items -> tb h (t_set_items t items).
Proof. intros H Hi. inversion H; subst. cbn [t_set_items]. constructor; assumption. Qed.

Lemma tb_set_span h t sp : tb h t -> tb h (t_set_span t sp).
Proof. intro H. inversion H; subst. cbn [t_set_span]. constructor; assumption. Qed.

Lemma tb_reopen h t d im dt p s : tb h t -> tb h (Tbl (t_items t) d im dt p s).
Proof. intro H. inversion H; subst. cbn [t_items]. constructor; assumption. Qed.

Lemma tb_new h d im dt p s : h <= HMAX -> tb h (Tbl [] d im dt p s).
Proof. intro Hh. constructor; [exact Hh|constructor]. Qed.

Lemma rev_cons_forall {A} (P : A -> Prop) l x r : rev l = x :: r -> Forall P l -> P x /\ Forall P r.
Proof.
  intros E H. apply Forall_rev in H. rewrite E in H. inversion H; subst. split; assumption.
Qed.

(* ---- descend_path ------------------------------------------------------------------------ *)
Lemma wta_tb {X} (Q : X -> Prop) : forall path t h dotted (f : tbl -> cres (tbl * X)) t' x,
  tb h t -> h + length path <= HMAX ->
  (forall p p' y, tb (h + length path) p -> f p = COk (p', y) -> tb (h + length path) p' /\ Q y) ->
  with_table_at t path dotted f = COk (t', x) -> tb h t' /\ Q x.
Proof.
  induction path as [|k ptl IH]; intros t h dotted f t' x Ht Hh Hf H; cbn [with_table_at] in H.
  - cbn [length] in Hf. rewrite Nat.add_0_r in Hf. exact (Hf _ _ _ Ht H).
  - cbn [length] in Hh, Hf.
    assert (Hf' : forall p p' y, tb (S h + length ptl) p -> f p = COk (p', y) ->
                                 tb (S h + length ptl) p' /\ Q y).
    { intros p p' y. replace (S h + length ptl) with (h + S (length ptl)) by lia. apply Hf. }
    assert (Hh' : S h + length ptl <= HMAX) by lia.
    pose proof (tb_items _ _ Ht) as Hit.
    destruct (kv_get (t_items t) (k_key k)) as [[k0 it0]|] eqn:G.
    + pose proof (kv_get_Forall _ _ _ _ _ Hit G) as H0. cbn [snd] in H0.
      destruct it0 as [|v0|sub|ts sp]; try discriminate.
      * (* table *)
        destruct (dotted && negb (t_implicit sub)); [discriminate|].
        destruct (with_table_at sub ptl dotted f) as [[sub' y]| |] eqn:E; try discriminate.
        inversion H; subst. inversion H0; subst.
        destruct (IH _ _ _ _ _ _ H3 Hh' Hf' E) as [Hs HQ]. split; [|exact HQ].
        apply tb_set_items; [exact Ht|]. apply kv_set_Forall; [exact Hit|].
        intros ? ? _ _. cbn [snd]. constructor. exact Hs.
      * (* array of tables *)
        destruct (dotted && _); [discriminate|].
        destruct (rev ts) as [|last rinit] eqn:R; [discriminate|].
        destruct (with_table_at last ptl dotted f) as [[last' y]| |] eqn:E; try discriminate.
        inversion H; subst. inversion H0; subst.
        destruct (rev_cons_forall _ _ _ _ R H5) as [Hl Hr].
        destruct (IH _ _ _ _ _ _ Hl Hh' Hf' E) as [Hs HQ]. split; [|exact HQ].
        apply tb_set_items; [exact Ht|]. apply kv_set_Forall; [exact Hit|].
        intros ? ? _ _. cbn [snd]. constructor; [assumption|].
        apply Forall_app; split; [apply Forall_rev; assumption|repeat constructor; assumption].
    + destruct (with_table_at (Tbl [] decor_default true dotted None None) ptl dotted f)
        as [[sub y]| |] eqn:E; try discriminate.
      inversion H; subst.
      assert (Hn : tb (S h) (Tbl [] decor_default true dotted None None)) by (apply tb_new; lia).
      destruct (IH _ _ _ _ _ _ Hn Hh' Hf' E) as [Hs HQ]. split; [|exact HQ].
      apply tb_set_items; [exact Ht|]. apply kv_push_Forall; [exact Hit|].
      cbn [snd]. constructor. exact Hs.
Qed.

(* ---- the parse state --------------------------------------------------------------------- *)
Definition inv (st : pstate) : Prop :=
  tb 0 (st_root st) /\ tb (length (st_path st)) (st_current st) /\ length (st_path st) < LIMIT.

Lemma HMAX_ge : LIMIT - 1 <= HMAX.
Proof. unfold HMAX. pose proof LIMIT_ge2. lia. Qed.

Lemma inv_new : inv state_new.
Proof.
  unfold inv, state_new. cbn [st_root st_current st_path length]. pose proof LIMIT_ge2.
  split; [|split]; [apply tb_new; lia|apply tb_set_span; apply tb_new; lia|lia].
Qed.

Lemma inv_on_ws st sp : inv st -> inv (on_ws st sp).
Proof. intro H. exact H. Qed.

Lemma pop_key_length p pp k : pop_key p = Some (pp, k) -> length p = S (length pp).
Proof. intro E. rewrite (pop_key_some _ _ _ E), app_length. cbn [length]. lia. Qed.

Lemma inv_on_keyval st path k v st' :
  inv st -> length path + 1 < LIMIT -> ib (length (st_path st) + length path) v ->
  on_keyval st path k v = COk st' -> inv st'.
Proof.
  intros (Hr & Hc & Hp) Hl Hv H. apply on_keyval_inv in H as (cur' & E & ->).
  assert (Hcur : tb (length (st_path st)) (kv_cur st v)).
  { unfold kv_cur. destruct (t_span (st_current st)); [|exact Hc].
    destruct (item_span v); [apply tb_set_span|]; exact Hc. }
  unfold inv. cbn [st_root st_current st_path].
  split; [exact Hr|]. split; [|exact Hp].
  refine (proj1 (wta_tb (fun _ => True) path _ _ true _ cur' tt Hcur _ _ E)).
  - unfold HMAX. lia.
  - intros p p' y Hp0 Hfn. split; [|exact I]. apply f_keyval_inv in Hfn as (_ & _ & ->).
    apply tb_set_items; [exact Hp0|]. apply kv_push_Forall; [apply tb_items; exact Hp0|exact Hv].
Qed.

(* the span bookkeeping of dotted tables keeps the shape of the tree *)
Lemma tb_set_dotted_spans : forall path t h e, tb h t -> tb h (set_dotted_spans t path e).
Proof.
  induction path as [|k ptl IH]; intros t h e Ht; [exact Ht|].
  destruct (set_dotted_spans_cons t k ptl e) as [->|(k0 & sub & sp & G & ->)]; [exact Ht|].
  pose proof (tb_items _ _ Ht) as Hit. pose proof (kv_get_Forall _ _ _ _ _ Hit G) as H0. cbn [snd] in H0. inversion H0; subst.
  apply tb_set_items; [exact Ht|]. apply kv_set_Forall; [exact Hit|].
  intros ? ? _ _. cbn [snd]. constructor. apply IH, tb_set_span. assumption.
Qed.

Lemma inv_on_keyval_sp st path k v st' :
  inv st -> length path + 1 < LIMIT -> ib (length (st_path st) + length path) v ->
  on_keyval_sp st path k v = COk st' -> inv st'.
Proof.
  intros Hi Hl Hv H. apply on_keyval_sp_inv in H as (st1 & E & ->).
  destruct (inv_on_keyval _ _ _ _ _ Hi Hl Hv E) as (Hr & Hc & Hp). unfold inv. cbn [st_root st_current st_path].
  split; [|split]; [exact Hr|apply tb_set_dotted_spans; exact Hc|exact Hp].
Qed.

(* what finalize_table writes at the parent of the table it closes *)
Lemma f_fin_tb (ia : bool) k cur h p p' y :
  tb (S h) cur -> S h < LIMIT -> tb h p ->
  (if ia then f_fin_aot k cur else f_fin_std k cur) p = COk (p', y) -> tb h p'.
Proof.
  intros Hc Hl Hp Hfn. pose proof (tb_items _ _ Hp) as Hit.
  destruct ia; [unfold f_fin_aot in Hfn|unfold f_fin_std in Hfn];
    destruct (kv_get (t_items p) (k_key k)) as [[k0 it0]|] eqn:G.
  - pose proof (kv_get_Forall _ _ _ _ _ Hit G) as H0. cbn [snd] in H0.
    destruct it0 as [|v0|sub|ts sp]; try discriminate.
    inversion Hfn; subst. inversion H0; subst.
    apply tb_set_items; [exact Hp|]. apply kv_set_Forall; [exact Hit|].
    intros ? ? _ _. cbn [snd]. constructor; [assumption|].
    apply Forall_app. split; [assumption|repeat constructor; exact Hc].
  - inversion Hfn; subst.
    apply tb_set_items; [exact Hp|]. apply kv_push_Forall; [exact Hit|].
    cbn [snd]. constructor; [exact Hl|repeat constructor; exact Hc].
  - destruct it0 as [|v0|sub|ts sp]; try discriminate.
    destruct (t_implicit sub); [|discriminate]. inversion Hfn; subst.
    apply tb_set_items; [exact Hp|]. apply kv_set_Forall; [exact Hit|].
    intros ? ? _ _. cbn [snd]. constructor. exact Hc.
  - inversion Hfn; subst.
    apply tb_set_items; [exact Hp|]. apply kv_push_Forall; [exact Hit|].
    cbn [snd]. constructor. exact Hc.
Qed.

Lemma inv_finalize st st' :
  inv st -> finalize_table st = COk st' -> inv st' /\ st_path st' = [] /\ st_current st' = tbl_new.
Proof.
  destruct st as [root tr pos cur ia path]. intros (Hr & Hc & Hp) H. cbn [st_root st_current st_path] in *.
  pose proof LIMIT_ge2 as HL.
  assert (Hdone : forall root', tb 0 root' ->
            inv (mkState root' tr pos tbl_new ia []) /\ st_path (mkState root' tr pos tbl_new ia []) = []
            /\ st_current (mkState root' tr pos tbl_new ia []) = tbl_new).
  { intros root' Hroot. split; [|split; reflexivity]. unfold inv. cbn [st_root st_current st_path length].
    split; [|split]; [exact Hroot|apply tb_new; lia|lia]. }
  destruct (pop_key path) as [[ppath k]|] eqn:P.
  - rewrite (finalize_eq _ _ _ _ _ _ _ _ P) in H. apply pop_key_length in P. rewrite P in Hc, Hp.
    destruct (with_table_at root ppath false _) as [[root' u]| |] eqn:E; try discriminate.
    inversion H; subst. apply Hdone.
    refine (proj1 (wta_tb (fun _ => True) ppath _ 0 false _ root' u Hr _ _ E)); [unfold HMAX; lia|].
    intros p p' y Hp0 Hfn. split; [|exact I]. exact (f_fin_tb ia k cur _ p p' y Hc Hp Hp0 Hfn).
  - unfold finalize_table in H. cbn [st_root st_current st_path] in H. rewrite P in H.
    apply pop_key_none in P. subst path.
    destruct (tbl_is_empty root); [|discriminate]. inversion H; subst. apply Hdone. exact Hc.
Qed.

Lemma inv_open_table st root' current path dec sp is_array :
  tb 0 root' -> tb (length path) current -> length path < LIMIT ->
  inv (open_table st root' current path dec sp is_array).
Proof.
  intros Hr Hc Hp. unfold inv, open_table. cbn [st_root st_current st_path].
  split; [|split]; [exact Hr|apply tb_reopen; exact Hc|exact Hp].
Qed.

(* what the two header steps do at the parent of the table they open *)
Lemma f_start_std_tb k h p p' tk :
  tb h p -> f_start_std k p = COk (p', tk) -> tb h p' /\ match tk with Some t => tb (S h) t | None => True end.
Proof.
  intros Hp Hfn. unfold f_start_std in Hfn. pose proof (tb_items _ _ Hp) as Hit.
  destruct (kv_get (t_items p) (k_key k)) as [[k0 it0]|] eqn:G.
  - pose proof (kv_get_Forall _ _ _ _ _ Hit G) as H0. cbn [snd] in H0.
    destruct it0 as [|v0|sub|ts sp0]; try discriminate.
    destruct (t_implicit sub && negb (t_dotted sub)); [|discriminate]. inversion Hfn; subst.
    inversion H0; subst. split; [|assumption].
    apply tb_set_items; [exact Hp|]. apply kv_remove_Forall. exact Hit.
  - inversion Hfn; subst. split; [exact Hp|exact I].
Qed.
Lemma f_start_aot_tb k h p p' u : S h < LIMIT -> tb h p -> f_start_aot k p = COk (p', u) -> tb h p'.
Proof.
  intros Hl Hp Hfn. unfold f_start_aot in Hfn.
  destruct (kv_get (t_items p) (k_key k)) as [[k0 it0]|] eqn:G.
  - destruct it0 as [|v0|sub|ts sp0]; try discriminate. inversion Hfn; subst. exact Hp.
  - inversion Hfn; subst.
    apply tb_set_items; [exact Hp|]. apply kv_push_Forall; [apply tb_items, Hp|].
    cbn [snd]. constructor; [exact Hl|constructor].
Qed.

Section Start.
  Variables (st : pstate) (path : list key) (dec : decor) (sp : N * N) (st' : pstate).
  Hypothesis Hr : tb 0 (st_root st).
  Hypothesis Hc : st_current st = tbl_new.
  Hypothesis Hp : st_path st = [].
  Hypothesis Hne : path <> [].
  Hypothesis Hl : length path < LIMIT.

  Lemma inv_start_table : start_table st path dec sp = COk st' -> inv st'.
  Proof.
    intro H. destruct (pop_key_nonempty path Hne) as (ppath & k & P).
    rewrite (start_table_fin _ _ _ _ _ _ Hc Hp P) in H. apply pop_key_length in P.
    destruct (with_table_at (st_root st) ppath false (f_start_std k)) as [[root' tk]| |] eqn:E; try discriminate.
    inversion H; subst st'.
    destruct (wta_tb (fun o : option tbl => match o with Some t => tb (length path) t | None => True end)
                ppath _ 0 false (f_start_std k) root' tk Hr) as [Hr' HQ]; [unfold HMAX; lia| |exact E|].
    - intros p p' y Hp0 Hfn. cbn [plus] in *. rewrite P. exact (f_start_std_tb k _ p p' y Hp0 Hfn).
    - apply inv_open_table; [exact Hr'| |exact Hl].
      destruct tk as [t|]; [exact HQ|apply tb_new; unfold HMAX; lia].
  Qed.

  Lemma inv_start_array_table : start_array_table st path dec sp = COk st' -> inv st'.
  Proof.
    intro H. destruct (pop_key_nonempty path Hne) as (ppath & k & P).
    rewrite (start_array_table_fin _ _ _ _ _ _ Hc Hp P) in H. apply pop_key_length in P.
    destruct (with_table_at (st_root st) ppath false (f_start_aot k)) as [[root' u]| |] eqn:E; try discriminate.
    inversion H; subst st'.
    apply inv_open_table; [|apply tb_new; unfold HMAX; lia|exact Hl].
    refine (proj1 (wta_tb (fun _ => True) ppath _ 0 false _ root' u Hr _ _ E)); [unfold HMAX; lia|].
    intros p p' y Hp0 Hfn. split; [|exact I]. cbn [plus] in *. apply (f_start_aot_tb k _ p p' y); [lia|exact Hp0|exact Hfn].
  Qed.
End Start.

Lemma inv_on_header is_array st path trailing sp st' :
  inv st -> length path < LIMIT -> on_header is_array st path trailing sp = COk st' -> inv st'.
Proof.
  intros Hi Hl H. unfold on_header in H. destruct path as [|k0 ptl] eqn:Ep; [discriminate|].
  rewrite <- Ep in *. assert (Hne : path <> []) by (rewrite Ep; discriminate). clear Ep.
  destruct (finalize_table st) as [st1| |] eqn:F; try discriminate.
  destruct (inv_finalize _ _ Hi F) as ((Hr1 & _) & Hp1 & Hc1).
  unfold take_trailing in H.
  destruct is_array; [eapply inv_start_array_table|eapply inv_start_table]; try exact H; assumption.
Qed.

(* ---- key paths --------------------------------------------------------------------------- *)
Lemma key_ok i kp i' : key_ i = Ok kp i' -> length kp < LIMIT.
Proof.
  unfold key_. intro H. apply bind_inv in H as (path & i1 & H1 & H).
  apply try_map_inv in H1 as (k & _ & H1).
  destruct (check_depth (length k)) eqn:C; [discriminate|]. inversion H1; subst.
  apply check_depth_false in C.
  destruct (fix_key_path path) as [p|] eqn:F; [|discriminate].
  inversion H; subst. rewrite (fix_key_path_length _ _ F). exact C.
Qed.

(* what the grammar hands to on_keyval: a short path and a value of bounded depth *)
Definition kv_bounded (x : list key * (key * item)) : Prop :=
  length (fst x) + 1 < LIMIT /\ exists v0, snd (snd x) = IValue v0 /\ value_depth v0 <= VMAX.

Lemma parse_keyval_ok : valP kv_bounded parse_keyval.
Proof.
  intros i [p [k v]] i' H. unfold parse_keyval in H.
  apply bind_inv in H as (kp & i1 & H1 & H).
  apply bind_inv in H as ([[pre v1] suf] & i2 & H2 & H).
  apply key_ok in H1.
  destruct (pop_key kp) as [[path k1]|] eqn:P; [|discriminate].
  inversion H; subst. apply pop_key_length in P. split; [cbn [fst]; lia|].
  eexists; split; [reflexivity|]. rewrite value_depth_decorate.
  apply cut_err_inv in H2.
  apply bind_inv in H2 as (c & j1 & _ & H2).
  apply bind_inv in H2 as (pre' & j2 & _ & H2).
  apply bind_inv in H2 as (v' & j3 & Hv & H2).
  apply bind_inv in H2 as (suf' & j4 & _ & H2).
  inversion H2; subst. exact (value_depth_bound_top _ _ _ Hv).
Qed.

(* ---- the document loop ------------------------------------------------------------------- *)
Lemma inv_pmap_on_ws {A} st (p : parser A) (g : A -> N * N) i st' i' :
  inv st -> pmap (fun x => on_ws st (g x)) p i = Ok st' i' -> inv st'.
Proof. intros Hi H. apply pmap_inv in H as (a & _ & ->). exact Hi. Qed.

Lemma inv_document : valP inv document.
Proof.
  apply (document_inv inv kv_bounded (fun kp => length kp < LIMIT) parse_keyval_ok key_ok inv_on_ws);
    [| |exact inv_new].
  - intros st p k v st' Hi (Hl & v0 & E & Hv) H. cbn [fst snd] in *. subst v.
    eapply inv_on_keyval_sp; [exact Hi|exact Hl| |exact H]. constructor. exact Hv.
  - intros ia st h t sp st' Hi Hh H. eapply inv_on_header; eassumption.
Qed.

Lemma parse_document_tb s d : parse_document s = POk d -> tb 0 (doc_root d).
Proof.
  intro H. apply parse_document_run in H as (st & i & st' & Hd & _ & F & ->). cbn [doc_root].
  destruct (inv_finalize _ _ (inv_document _ _ _ Hd) F) as [(Hr & _) _]. exact Hr.
Qed.

(* ---- from the invariant to the depth ----------------------------------------------------- *)
(* a table h keys below the root is at most this deep (its own level included) *)
Definition DB (h : nat) : nat := S (VMAX + (HMAX - h) + (LIMIT - 1 - h)).

Lemma tb_depth : forall t h, tb h t -> tbl_depth t <= DB h.
Proof.
  pose proof LIMIT_ge2 as HL.
  refine (proj2 (proj2 (tree_ind3 (fun _ => True)
            (fun it => forall h, h <= HMAX -> ib h it -> titem_depth it <= VMAX + (HMAX - h) + (LIMIT - 1 - h))
            (fun t => forall h, tb h t -> tbl_depth t <= DB h) _ _ _ _ _ _ _ _))); try exact (fun _ => I); try tauto.
  - intros h _ _. cbn [titem_depth]. lia.
  - intros v _ h _ Hv. inversion Hv; subst. cbn [titem_depth]. lia.
  - intros s IH h _ Hs. inversion Hs as [ | | ? ? Ht | ]; subst. cbn [titem_depth].
    specialize (IH _ Ht). apply tb_level in Ht. unfold DB in IH. lia.
  - intros ts sp IH h Hh Ha. inversion Ha as [ | | | ? ? ? Hlt Hts ]; subst. cbn [titem_depth].
    assert (lmax tbl_depth ts <= DB (S h)).
    { apply lmax_le. intros e He. rewrite Forall_forall in IH, Hts. exact (IH _ He _ (Hts _ He)). }
    unfold DB, HMAX in *. lia.
  - intros items d im dt p sp IH h Ht. inversion Ht as [? ? ? ? ? ? ? Hh Hall]; subst.
    rewrite tbl_depth_eq. unfold DB. apply le_n_S. unfold titems_depth. apply lmax_le.
    intros [k0 it] Hin. rewrite Forall_forall in IH, Hall. exact (IH _ Hin _ Hh (Hall _ Hin)).
Qed.

Definition DEPTH_BOUND : nat := 5 * LIMIT - 6.

Lemma tb_root_depth t : tb 0 t -> tbl_depth t <= DEPTH_BOUND.
Proof.
  intro H. pose proof (tb_depth t 0 H) as Hd.
  unfold DB, DEPTH_BOUND, VMAX, HMAX in *. pose proof LIMIT_ge2. lia.
Qed.

Lemma document_depth_bound s d : parse_document s = POk d -> tbl_depth (doc_root d) <= DEPTH_BOUND.
Proof. intro H. apply tb_root_depth. exact (parse_document_tb _ _ H). Qed.

(* the value entry point (`Value::from_str`) *)
Lemma parse_value_depth s v : parse_value_raw s = POk v -> value_depth v <= 2 * LIMIT - 3.
Proof.
  unfold parse_value_raw. intro H.
  destruct (parse_all (terminated_eoi value_) s) as [x| |] eqn:E; try discriminate.
  cbn [lift_outcome] in H. inversion H; subst.
  apply parse_all_eoi_done_inv in E as (i1 & Hv & _).
  exact (value_depth_bound_top _ _ _ Hv).
Qed.

Lemma DEPTH_BOUND_value : DEPTH_BOUND = 394.
Proof. reflexivity. Qed.
