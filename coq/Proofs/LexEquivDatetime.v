(* Proofs/LexEquivDatetime.v — the model's date-time parser `date_time` (Model/Datetime.v) against
   the relational grammar `date_time_tok` of Spec/Syntax.v, in the maximal-munch sense:
     date_time_sound     an Ok result reads a text that is a date-time of the grammar, with its value
     date_time_complete  a date-time of the grammar followed by a continuation that cannot extend
                         it (dt_stop) is read entirely, with the grammar's value
     date_time_cut_only  hence a committed error never happens in front of such a text
     date_time_tok_in_range, date_time_tok_head.
   Route: the exact normal forms of every stage proved in Proofs/DatetimeEq.v (in terms of the
   tiny functional parsers two / four / sexpect / date10 / time8 / hm5), bridged here to the
   relational digit tokens of the grammar. *)
From Coq Require Import List Bool Arith NArith ZArith Lia ZifyBool ZifyN ZifyNat.
From Coq.Strings Require Import Byte.
From TV Require Import Base.Prelude Base.Winnow Gen.Consts Spec.Abnf Spec.Lex
  Spec.DatetimeSpec Spec.Syntax Model.Datetime Model.DatetimeStd Proofs.DatetimeEq Proofs.LexEquivBase.
Import ListNotations.

(* ================================================================================================ *)
(* small facts                                                                                      *)
(* ================================================================================================ *)
Lemma digit_is b : Abnf.digit b = is_digit b.
Proof. reflexivity. Qed.

Lemma all_digit_is l : all Abnf.digit l -> forallb is_digit l = true.
Proof. intro H. exact H. Qed.

Lemma not_ok_soft {A} (X : res A) a i : soft X -> X = Ok a i -> False.
Proof. intros (e & j & H) E. rewrite H in E. discriminate. Qed.
Lemma not_ok_hard {A} (X : res A) a i : hard X -> X = Ok a i -> False.
Proof. intros (e & j & H) E. rewrite H in E. discriminate. Qed.

Lemma mkIn_eq r p q d : p = q -> mkIn r p d = mkIn r q d.
Proof. intros ->. reflexivity. Qed.

Lemma horner2 a b : horner 10 [a; b] = (digit_of a * 10 + digit_of b)%N.
Proof. unfold horner. cbn [fold_left]. lia. Qed.
Lemma horner4 a b c e :
  horner 10 [a; b; c; e] = (digit_of a * 1000 + digit_of b * 100 + digit_of c * 10 + digit_of e)%N.
Proof. unfold horner. cbn [fold_left]. lia. Qed.

Lemma digit_of_le b : Abnf.digit b = true -> (digit_of b <= 9)%N.
Proof. intro H. rewrite (digit_of_val b H). apply is_digit_val. exact H. Qed.

(* ================================================================================================ *)
(* the functional mini-parsers and the digit tokens                                                 *)
(* ================================================================================================ *)
Lemma sdigit_ok b r : Abnf.digit b = true -> sdigit (b :: r) = Some (digit_of b, r).
Proof.
  intro H. unfold sdigit. rewrite <- digit_is, H. rewrite (digit_of_val b H). reflexivity.
Qed.

Lemma sdigit_inv s v r :
  sdigit s = Some (v, r) -> exists b, s = b :: r /\ Abnf.digit b = true /\ v = digit_of b.
Proof.
  unfold sdigit. destruct s as [|b s]; [discriminate|].
  destruct (is_digit b) eqn:E; [|discriminate]. intro H. injection H as <- <-.
  exists b. split; [reflexivity|]. split; [exact E|]. symmetry. apply digit_of_val. exact E.
Qed.

Lemma sbind_inv {A B} (p : sp A) (f : A -> sp B) s b r :
  sbind p f s = Some (b, r) -> exists a r1, p s = Some (a, r1) /\ f a r1 = Some (b, r).
Proof.
  unfold sbind. destruct (p s) as [[a r1]|]; [|discriminate]. intro H. exists a, r1. split; [reflexivity|exact H].
Qed.

Lemma two_ok t v r : digits_tok 2 t v -> two (t ++ r) = Some (v, r).
Proof.
  intros (Hl & Ha & ->). destruct t as [|a [|b [|c t]]]; try discriminate Hl.
  unfold all in Ha. cbn [forallb] in Ha. apply andb_true_iff in Ha as [Da Hb].
  apply andb_true_iff in Hb as [Db _].
  unfold two, sbind. cbn [app]. rewrite (sdigit_ok a _ Da), (sdigit_ok b _ Db). unfold sret.
  rewrite horner2. reflexivity.
Qed.

Lemma two_inv s v r : two s = Some (v, r) -> exists t, s = t ++ r /\ digits_tok 2 t v.
Proof.
  unfold two. intro H.
  apply sbind_inv in H as (a & r1 & H1 & H). apply sbind_inv in H as (b & r2 & H2 & H).
  unfold sret in H. injection H as <- <-.
  apply sdigit_inv in H1 as (x & -> & Dx & ->). apply sdigit_inv in H2 as (y & -> & Dy & ->).
  exists [x; y]. split; [reflexivity|]. split; [reflexivity|]. split.
  - unfold all. cbn [forallb]. rewrite Dx, Dy. reflexivity.
  - rewrite horner2. reflexivity.
Qed.

Lemma four_ok t v r : digits_tok 4 t v -> four (t ++ r) = Some (v, r).
Proof.
  intros (Hl & Ha & ->). destruct t as [|a [|b [|c [|e [|g t]]]]]; try discriminate Hl.
  unfold all in Ha. cbn [forallb] in Ha. apply andb_true_iff in Ha as [Da Ha].
  apply andb_true_iff in Ha as [Db Ha]. apply andb_true_iff in Ha as [Dc Ha].
  apply andb_true_iff in Ha as [De _].
  unfold four, sbind. cbn [app].
  rewrite (sdigit_ok a _ Da), (sdigit_ok b _ Db), (sdigit_ok c _ Dc), (sdigit_ok e _ De). unfold sret.
  rewrite horner4. reflexivity.
Qed.

Lemma four_inv s v r : four s = Some (v, r) -> exists t, s = t ++ r /\ digits_tok 4 t v.
Proof.
  unfold four. intro H.
  apply sbind_inv in H as (a & r1 & H1 & H). apply sbind_inv in H as (b & r2 & H2 & H).
  apply sbind_inv in H as (c & r3 & H3 & H). apply sbind_inv in H as (e & r4 & H4 & H).
  unfold sret in H. injection H as <- <-.
  apply sdigit_inv in H1 as (x & -> & Dx & ->). apply sdigit_inv in H2 as (y & -> & Dy & ->).
  apply sdigit_inv in H3 as (z & -> & Dz & ->). apply sdigit_inv in H4 as (w & -> & Dw & ->).
  exists [x; y; z; w]. split; [reflexivity|]. split; [reflexivity|]. split.
  - unfold all. cbn [forallb]. rewrite Dx, Dy, Dz, Dw. reflexivity.
  - rewrite horner4. reflexivity.
Qed.

Lemma sexpect_inv c s u r : sexpect c s = Some (u, r) -> s = c :: r.
Proof.
  unfold sexpect. destruct s as [|b s]; [discriminate|]. destruct (byte_eqb b c) eqn:E; [|discriminate].
  intro H. injection H as _ <-. apply byte_eqb_eq in E. subst. reflexivity.
Qed.

Lemma digits_tok_len n t v : digits_tok n t v -> length t = n.
Proof. intros (H & _). exact H. Qed.

Lemma digits_tok_head n t v : digits_tok (S n) t v -> exists b t', t = b :: t' /\ Abnf.digit b = true.
Proof.
  intros (Hl & Ha & _). destruct t as [|b t']; [discriminate|]. exists b, t'. split; [reflexivity|].
  unfold all in Ha. cbn [forallb] in Ha. apply andb_true_iff in Ha as [Ha _]. exact Ha.
Qed.

Lemma digits_tok2_bound t v : digits_tok 2 t v -> (v <= 99)%N.
Proof.
  intros (Hl & Ha & ->). destruct t as [|a [|b [|c t]]]; try discriminate Hl.
  unfold all in Ha. cbn [forallb] in Ha. apply andb_true_iff in Ha as [Da Hb].
  apply andb_true_iff in Hb as [Db _]. rewrite horner2.
  pose proof (digit_of_le a Da). pose proof (digit_of_le b Db). lia.
Qed.

Lemma digits_tok4_bound t v : digits_tok 4 t v -> (v <= 9999)%N.
Proof.
  intros (Hl & Ha & ->). destruct t as [|a [|b [|c [|e [|g t]]]]]; try discriminate Hl.
  unfold all in Ha. cbn [forallb] in Ha. apply andb_true_iff in Ha as [Da Ha].
  apply andb_true_iff in Ha as [Db Ha]. apply andb_true_iff in Ha as [Dc Ha].
  apply andb_true_iff in Ha as [De _]. rewrite horner4.
  pose proof (digit_of_le a Da). pose proof (digit_of_le b Db).
  pose proof (digit_of_le c Dc). pose proof (digit_of_le e De). lia.
Qed.

(* full-date, without the range conditions *)
Lemma date10_ok ty tm td y m dd r :
  digits_tok 4 ty y -> digits_tok 2 tm m -> digits_tok 2 td dd ->
  date10 (ty ++ [x2d] ++ tm ++ [x2d] ++ td ++ r) = Some ((y, m, dd), r).
Proof.
  intros Hy Hm Hd. unfold date10, sbind. rewrite (four_ok ty y _ Hy). cbn [app].
  change x2d with dash. rewrite sexpect_same. rewrite (two_ok tm m _ Hm). rewrite sexpect_same.
  rewrite (two_ok td dd _ Hd). reflexivity.
Qed.

Lemma date10_inv s y m dd r :
  date10 s = Some ((y, m, dd), r) ->
  exists ty tm td, s = ty ++ [x2d] ++ tm ++ [x2d] ++ td ++ r
                   /\ digits_tok 4 ty y /\ digits_tok 2 tm m /\ digits_tok 2 td dd.
Proof.
  unfold date10. intro H.
  apply sbind_inv in H as (y' & r1 & H1 & H). apply sbind_inv in H as (u1 & r2 & H2 & H).
  apply sbind_inv in H as (m' & r3 & H3 & H). apply sbind_inv in H as (u2 & r4 & H4 & H).
  apply sbind_inv in H as (d' & r5 & H5 & H). unfold sret in H. injection H as <- <- <- <-.
  apply four_inv in H1 as (ty & -> & Hy). apply sexpect_inv in H2 as ->.
  apply two_inv in H3 as (tm & -> & Hm). apply sexpect_inv in H4 as ->.
  apply two_inv in H5 as (td & -> & Hd).
  exists ty, tm, td. split; [reflexivity|]. split; [exact Hy|]. split; [exact Hm|exact Hd].
Qed.

(* hh:mm:ss, without the range conditions *)
Lemma time8_ok th tmi ts h mi s r :
  digits_tok 2 th h -> digits_tok 2 tmi mi -> digits_tok 2 ts s ->
  time8 (th ++ [x3a] ++ tmi ++ [x3a] ++ ts ++ r) = Some ((h, mi, s), r).
Proof.
  intros Hh Hm Hs. unfold time8, sbind. rewrite (two_ok th h _ Hh). cbn [app].
  change x3a with colon. rewrite sexpect_same. rewrite (two_ok tmi mi _ Hm). rewrite sexpect_same.
  rewrite (two_ok ts s _ Hs). reflexivity.
Qed.

Lemma time8_inv x h mi s r :
  time8 x = Some ((h, mi, s), r) ->
  exists th tmi ts, x = th ++ [x3a] ++ tmi ++ [x3a] ++ ts ++ r
                    /\ digits_tok 2 th h /\ digits_tok 2 tmi mi /\ digits_tok 2 ts s.
Proof.
  unfold time8. intro H.
  apply sbind_inv in H as (h' & r1 & H1 & H). apply sbind_inv in H as (u1 & r2 & H2 & H).
  apply sbind_inv in H as (m' & r3 & H3 & H). apply sbind_inv in H as (u2 & r4 & H4 & H).
  apply sbind_inv in H as (s' & r5 & H5 & H). unfold sret in H. injection H as <- <- <- <-.
  apply two_inv in H1 as (th & -> & Hh). apply sexpect_inv in H2 as ->.
  apply two_inv in H3 as (tmi & -> & Hm). apply sexpect_inv in H4 as ->.
  apply two_inv in H5 as (ts & -> & Hs).
  exists th, tmi, ts. split; [reflexivity|]. split; [exact Hh|]. split; [exact Hm|exact Hs].
Qed.

(* hh:mm of a numeric offset *)
Lemma hm5_ok th tmi h mi r :
  digits_tok 2 th h -> digits_tok 2 tmi mi -> hm5 (th ++ [x3a] ++ tmi ++ r) = Some ((h, mi), r).
Proof.
  intros Hh Hm. unfold hm5, sbind. rewrite (two_ok th h _ Hh). cbn [app].
  change x3a with colon. rewrite sexpect_same. rewrite (two_ok tmi mi _ Hm). reflexivity.
Qed.

Lemma hm5_inv x h mi r :
  hm5 x = Some ((h, mi), r) ->
  exists th tmi, x = th ++ [x3a] ++ tmi ++ r /\ digits_tok 2 th h /\ digits_tok 2 tmi mi.
Proof.
  unfold hm5. intro H.
  apply sbind_inv in H as (h' & r1 & H1 & H). apply sbind_inv in H as (u1 & r2 & H2 & H).
  apply sbind_inv in H as (m' & r3 & H3 & H). unfold sret in H. injection H as <- <- <-.
  apply two_inv in H1 as (th & -> & Hh). apply sexpect_inv in H2 as ->.
  apply two_inv in H3 as (tmi & -> & Hm).
  exists th, tmi. split; [reflexivity|]. split; [exact Hh|exact Hm].
Qed.

(* ================================================================================================ *)
(* the fraction: the parser's weighted sum is the grammar's "first nine digits, zero padded"         *)
(* ================================================================================================ *)
Lemma repeat_zero_in n b : In b (repeat x30 n) -> b = x30.
Proof. intro H. apply repeat_spec in H. exact H. Qed.

Lemma forallb_repeat_zero n : forallb is_digit (repeat x30 n) = true.
Proof. induction n as [|n IH]; [reflexivity|]. cbn [repeat forallb]. rewrite IH. reflexivity. Qed.

Lemma fracval_nanos ds : all Abnf.digit ds -> fracval 0 ds = nanos ds.
Proof.
  intro Hd. apply all_digit_is in Hd. unfold nanos.
  set (l := ds ++ repeat x30 9).
  assert (Hl : forallb is_digit l = true).
  { unfold l. rewrite forallb_app, Hd, forallb_repeat_zero. reflexivity. }
  assert (Hlen : length (firstn 9 l) = 9%nat).
  { rewrite firstn_length. unfold l. rewrite app_length, repeat_length. lia. }
  pose proof (forallb_firstn is_digit 9 l Hl) as Hf.
  destruct (fracval_nine (firstn 9 l) Hlen Hf) as [E _].
  rewrite <- (dec_value_horner _ Hf), <- E.
  rewrite <- (fracval_app_zeros ds (repeat x30 9) (repeat_zero_in 9) 0). fold l.
  apply (fracval_firstn l 0).
Qed.

Lemma nanos_bound ds : all Abnf.digit ds -> (nanos ds <= 999999999)%N.
Proof. intro H. rewrite <- (fracval_nanos ds H). apply fracval_bound. exact H. Qed.

(* ================================================================================================ *)
(* full-date                                                                                        *)
(* ================================================================================================ *)
Lemma full_date_tok_len t dt : full_date_tok t dt -> length t = 10%nat.
Proof.
  intros (ty & tm & td & y & m & dd & -> & Hy & Hm & Hd & _).
  apply digits_tok_len in Hy, Hm, Hd. rewrite !app_length, Hy, Hm, Hd. reflexivity.
Qed.

Lemma full_date_sound s p d dt i' :
  full_date (mkIn s p d) = Ok dt i' ->
  exists t r, s = t ++ r /\ full_date_tok t dt /\ i' = mkIn r (p + N.of_nat (length t))%N d.
Proof.
  intro Hok. pose proof (full_date_nf s p d) as H.
  destruct (date10 s) as [[[[y m] dd] r]|] eqn:E.
  2:{ exfalso. destruct H as [H|H]; [eapply not_ok_soft|eapply not_ok_hard]; eassumption. }
  destruct ((m <? 1)%N || (12 <? m)%N) eqn:E1; [exfalso; eapply not_ok_hard; eassumption|].
  destruct ((dd <? 1)%N || (31 <? dd)%N) eqn:E2; [exfalso; eapply not_ok_hard; eassumption|].
  destruct (max_days DT_MAXDAYS m (is_leap_year y) <? dd)%N eqn:E3; [exfalso; eapply not_ok_hard; eassumption|].
  rewrite H in Hok. injection Hok as <- <-.
  apply date10_inv in E as (ty & tm & td & -> & Hy & Hm & Hd).
  assert (Htok : full_date_tok (ty ++ [x2d] ++ tm ++ [x2d] ++ td) (mkDate y m dd)).
  { exists ty, tm, td, y, m, dd. split; [reflexivity|]. split; [exact Hy|]. split; [exact Hm|].
    split; [exact Hd|]. split; [reflexivity|].
    pose proof (digits_tok4_bound _ _ Hy) as By.
    assert (Hm12 : (1 <= m <= 12)%N) by lia.
    pose proof (max_days_spec m y Hm12) as Hmd. change SD_MAXDAYS with DT_MAXDAYS in Hmd.
    rewrite Hmd in E3.
    unfold date_ok. cbn [year month day]. lia. }
  exists (ty ++ [x2d] ++ tm ++ [x2d] ++ td), r. split.
  - rewrite <- !app_assoc. reflexivity.
  - split; [exact Htok|]. apply mkIn_eq. rewrite (full_date_tok_len _ _ Htok). lia.
Qed.

Lemma full_date_complete t dt r p d :
  full_date_tok t dt -> full_date (mkIn (t ++ r) p d) = Ok dt (mkIn r (p + N.of_nat (length t))%N d).
Proof.
  intro Htok. pose proof (full_date_tok_len _ _ Htok) as Hlen.
  destruct Htok as (ty & tm & td & y & m & dd & -> & Hy & Hm & Hd & -> & Hok).
  pose proof (full_date_nf ((ty ++ [x2d] ++ tm ++ [x2d] ++ td) ++ r) p d) as H.
  replace ((ty ++ [x2d] ++ tm ++ [x2d] ++ td) ++ r) with (ty ++ [x2d] ++ tm ++ [x2d] ++ td ++ r) in *
    by (rewrite <- !app_assoc; reflexivity).
  rewrite (date10_ok ty tm td y m dd r Hy Hm Hd) in H.
  unfold date_ok in Hok. cbn [year month day] in Hok.
  assert (Hm12 : (1 <= m <= 12)%N) by lia.
  pose proof (max_days_spec m y Hm12) as Hmd. change SD_MAXDAYS with DT_MAXDAYS in Hmd.
  pose proof (days_in_month_le y m Hm12) as Hle.
  destruct ((m <? 1)%N || (12 <? m)%N) eqn:E1; [lia|].
  destruct ((dd <? 1)%N || (31 <? dd)%N) eqn:E2; [lia|].
  rewrite Hmd in H.
  destruct (days_in_month y m <? dd)%N eqn:E3; [lia|].
  rewrite H. f_equal. apply mkIn_eq. rewrite Hlen. lia.
Qed.

(* a text whose third byte is not a digit is no date: the date parser backtracks *)
Lemma full_date_soft3 a b c r p d : Abnf.digit c = false -> soft (full_date (mkIn (a :: b :: c :: r) p d)).
Proof. intro H. apply full_date_soft. apply four_third. exact H. Qed.

(* ================================================================================================ *)
(* partial-time                                                                                     *)
(* ================================================================================================ *)
(* what may follow a partial-time for it to be read entirely: no further fraction digit, no "." *)
Definition time_follow (r : bytes) : Prop :=
  match r with [] => True | b :: _ => Abnf.digit b = false /\ b <> x2e end.

Lemma dt_stop_time_follow r : dt_stop r -> time_follow r.
Proof. destruct r as [|b r]; [trivial|]. intros (H1 & H2 & _). split; assumption. Qed.

Lemma partial_time_tok_len t tm : partial_time_tok t tm -> (8 <= length t)%nat.
Proof.
  intros (th & tmi & ts & tf & h & mi & s & ns & -> & Hh & Hm & Hs & _).
  apply digits_tok_len in Hh, Hm, Hs. rewrite !app_length, Hh, Hm, Hs. cbn [length]. lia.
Qed.

Lemma partial_time_sound s p d tm i' :
  partial_time (mkIn s p d) = Ok tm i' ->
  exists t r, s = t ++ r /\ partial_time_tok t tm /\ i' = mkIn r (p + N.of_nat (length t))%N d.
Proof.
  intro Hok. pose proof (partial_time_nf s p d) as H.
  destruct (time8 s) as [[[[h mi] sec] r1]|] eqn:E.
  2:{ exfalso. destruct H as [H|H]; [eapply not_ok_soft|eapply not_ok_hard]; eassumption. }
  destruct (23 <? h)%N eqn:E1; [exfalso; eapply not_ok_soft; eassumption|].
  destruct ((59 <? mi)%N || (60 <? sec)%N) eqn:E2; [exfalso; eapply not_ok_hard; eassumption|].
  apply time8_inv in E as (th & tmi & ts & -> & Hh & Hm & Hs).
  pose proof (digits_tok_len _ _ _ Hh) as Lh. pose proof (digits_tok_len _ _ _ Hm) as Lm.
  pose proof (digits_tok_len _ _ _ Hs) as Ls.
  rewrite H in Hok. rewrite opt_secfrac in Hok.
  (* the two shapes of the result *)
  assert (Hnone : finish_time h mi sec (Ok None (mkIn r1 (p + 2 + 1 + 2 + 1 + 2)%N d)) = Ok tm i' ->
    exists t r, th ++ [x3a] ++ tmi ++ [x3a] ++ ts ++ r1 = t ++ r /\ partial_time_tok t tm
                /\ i' = mkIn r (p + N.of_nat (length t))%N d).
  { intro Hf. unfold finish_time in Hf. injection Hf as <- <-.
    exists (th ++ [x3a] ++ tmi ++ [x3a] ++ ts ++ []), r1. split.
    - rewrite <- !app_assoc. reflexivity.
    - split.
      + exists th, tmi, ts, [], h, mi, sec, 0%N. split; [reflexivity|].
        split; [exact Hh|]. split; [exact Hm|]. split; [exact Hs|].
        split; [left; split; reflexivity|]. split; [lia|]. split; [lia|]. split; [lia|reflexivity].
      + apply mkIn_eq. rewrite !app_length, Lh, Lm, Ls. cbn [length]. lia. }
  destruct r1 as [|b r2]; [exact (Hnone Hok)|].
  destruct (byte_eqb b dot) eqn:Eb; [|exact (Hnone Hok)].
  pose proof (span_while_all is_digit r2) as Hall. pose proof (span_while_app is_digit r2) as Happ.
  destruct (fst (span_while is_digit r2)) as [|x ds] eqn:Ef; [exact (Hnone Hok)|].
  clear Hnone. apply byte_eqb_eq in Eb. subst b.
  unfold finish_time in Hok. injection Hok as <- <-.
  set (q := snd (span_while is_digit r2)) in *.
  exists (th ++ [x3a] ++ tmi ++ [x3a] ++ ts ++ (x2e :: x :: ds)), q. split.
  - rewrite <- Happ. rewrite <- !app_assoc. reflexivity.
  - split.
    + exists th, tmi, ts, (x2e :: x :: ds), h, mi, sec, (fracval 0 (x :: ds)). split; [reflexivity|].
      split; [exact Hh|]. split; [exact Hm|]. split; [exact Hs|]. split.
      * right. exists (x :: ds). split; [reflexivity|]. split; [discriminate|].
        split; [exact Hall|]. apply fracval_nanos. exact Hall.
      * split; [lia|]. split; [lia|]. split; [lia|reflexivity].
    + apply mkIn_eq. rewrite !app_length, Lh, Lm, Ls. cbn [length]. lia.
Qed.

Lemma partial_time_complete t tm r p d :
  partial_time_tok t tm -> time_follow r ->
  partial_time (mkIn (t ++ r) p d) = Ok tm (mkIn r (p + N.of_nat (length t))%N d).
Proof.
  intros (th & tmi & ts & tf & h & mi & s & ns & -> & Hh & Hm & Hs & Hf & Bh & Bm & Bs & ->) Hfol.
  pose proof (digits_tok_len _ _ _ Hh) as Lh. pose proof (digits_tok_len _ _ _ Hm) as Lm.
  pose proof (digits_tok_len _ _ _ Hs) as Ls.
  pose proof (partial_time_nf ((th ++ [x3a] ++ tmi ++ [x3a] ++ ts ++ tf) ++ r) p d) as H.
  replace ((th ++ [x3a] ++ tmi ++ [x3a] ++ ts ++ tf) ++ r)
    with (th ++ [x3a] ++ tmi ++ [x3a] ++ ts ++ (tf ++ r)) in *
    by (rewrite <- !app_assoc; reflexivity).
  rewrite (time8_ok th tmi ts h mi s (tf ++ r) Hh Hm Hs) in H.
  destruct (23 <? h)%N eqn:E1; [lia|].
  destruct ((59 <? mi)%N || (60 <? s)%N) eqn:E2; [lia|].
  rewrite H. rewrite opt_secfrac.
  assert (Hlen : length (th ++ [x3a] ++ tmi ++ [x3a] ++ ts ++ tf) = (8 + length tf)%nat).
  { rewrite !app_length, Lh, Lm, Ls. cbn [length]. lia. }
  rewrite Hlen. clear Hlen H.
  destruct Hf as [[-> ->]|(ds & -> & Hne & Hd & ->)].
  - cbn [app length].
    assert (Hgoal : finish_time h mi s (Ok None (mkIn r (p + 2 + 1 + 2 + 1 + 2)%N d)) =
                    Ok (mkTime h mi s 0) (mkIn r (p + N.of_nat (8 + 0))%N d)).
    { unfold finish_time. apply f_equal. apply mkIn_eq. lia. }
    destruct r as [|b r']; [exact Hgoal|]. destruct Hfol as [_ Hb].
    apply byte_eqb_neq in Hb. change dot with x2e. rewrite Hb. exact Hgoal.
  - cbn [app]. change (byte_eqb x2e dot) with true. cbv iota.
    assert (Hst : stops is_digit r).
    { destruct r as [|b r']; [exact I|]. destruct Hfol as [Hb _]. exact Hb. }
    rewrite (span_while_exact is_digit ds r Hd Hst). cbn [fst snd].
    destruct ds as [|x ds']; [congruence|].
    unfold finish_time. rewrite (fracval_nanos _ Hd). f_equal.
    apply mkIn_eq. cbn [length]. lia.
Qed.

(* no digit in front: the time parser backtracks *)
Lemma partial_time_soft_nodigit s p d : stops is_digit s -> soft (partial_time (mkIn s p d)).
Proof.
  intro H. unfold partial_time, time_hour. rewrite bind_two.
  assert (E : two s = None).
  { unfold two, sbind, sdigit. destruct s as [|b s']; [reflexivity|]. cbn [stops] in H. rewrite H. reflexivity. }
  rewrite E. apply soft_intro.
Qed.

(* ================================================================================================ *)
(* [ time-offset ]                                                                                  *)
(* ================================================================================================ *)
Lemma sign_of_cases b sg : sign_of b = Some sg -> (b = x2b /\ sg = 1%Z) \/ (b = x2d /\ sg = (-1)%Z).
Proof.
  unfold sign_of. destruct (byte_eqb b plus) eqn:E1.
  - intro H. injection H as <-. apply byte_eqb_eq in E1. left. split; [exact E1|reflexivity].
  - destruct (byte_eqb b dash) eqn:E2; [|discriminate].
    intro H. injection H as <-. apply byte_eqb_eq in E2. right. split; [exact E2|reflexivity].
Qed.

(* the sign byte of a numeric offset and the sign of the grammar, in both directions *)
Lemma sign_of_tok b z : sign_of b = Some z ->
  exists neg, (([b] = [x2b] /\ neg = false) \/ ([b] = [x2d] /\ neg = true))
              /\ forall n, (z * Z.of_N n)%Z = signed neg n.
Proof.
  intro H. apply sign_of_cases in H as [[-> ->]|[-> ->]]; [exists false|exists true];
    (split; [auto|intro n; unfold signed; lia]).
Qed.

Lemma sign_tok_of sg neg : (sg = [x2b] /\ neg = false) \/ (sg = [x2d] /\ neg = true) ->
  exists b z, sg = [b] /\ sign_of b = Some z /\ byte_eqb b x5a || byte_eqb b x7a = false
              /\ forall n, (z * Z.of_N n)%Z = signed neg n.
Proof.
  intros [[-> ->]|[-> ->]]; [exists x2b, 1%Z|exists x2d, (-1)%Z];
    (repeat split; intro n; unfold signed; lia).
Qed.

(* exact description of `opt time_offset` *)
Lemma opt_offset_nf s p d :
  match s with
  | [] => opt time_offset (mkIn s p d) = Ok None (mkIn s p d)
  | b :: r =>
    if byte_eqb b x5a || byte_eqb b x7a
    then opt time_offset (mkIn s p d) = Ok (Some OffZ) (mkIn r (p + 1)%N d)
    else match sign_of b with
         | None => opt time_offset (mkIn s p d) = Ok None (mkIn s p d)
         | Some sg =>
           match hm5 r with
           | None => hard (opt time_offset (mkIn s p d))
           | Some ((h, mi), q) =>
             if (23 <? h)%N || (59 <? mi)%N then hard (opt time_offset (mkIn s p d))
             else opt time_offset (mkIn s p d)
                  = Ok (Some (OffCustom (sg * Z.of_N (h * 60 + mi))%Z)) (mkIn q (p + 1 + 2 + 1 + 2)%N d)
           end
         end
  end.
Proof.
  destruct s as [|b r]; [reflexivity|].
  rewrite time_offset_eq. unfold opt, context, alt, pvalue, pmap, verify. unfold one_of. cbn [rest].
  destruct (byte_eqb b x5a || byte_eqb b x7a); [reflexivity|].
  pose proof (signed_hm_spec b r p d _ eq_refl) as HS.
  destruct (sign_of b) as [sg|] eqn:Esg.
  2:{ destruct HS as (e & i & HS). rewrite HS. reflexivity. }
  destruct (hm5 r) as [[[h mi] q]|].
  2:{ destruct HS as (e & i & HS). rewrite HS. apply hard_intro. }
  destruct ((23 <? h)%N || (59 <? mi)%N) eqn:Eb.
  { destruct HS as (e & i & HS). rewrite HS. apply hard_intro. }
  rewrite HS. change DT_OFFSET_MIN with (-1440)%Z. change DT_OFFSET_MAX with 1440%Z.
  apply sign_of_cases in Esg.
  destruct ((-1440 <=? sg * Z.of_N (h * 60 + mi))%Z && (sg * Z.of_N (h * 60 + mi) <=? 1440)%Z) eqn:Ev;
    [reflexivity|].
  exfalso. destruct Esg as [[_ ->]|[_ ->]]; lia.
Qed.

Lemma time_offset_tok_len t o : time_offset_tok t o -> (1 <= length t)%nat.
Proof.
  intros [[[->| ->] _]|(sg & neg & th & tmi & h & mi & -> & Hsg & _)]; [cbn [length]; lia..|].
  rewrite app_length. destruct Hsg as [[-> _]|[-> _]]; cbn [length]; lia.
Qed.

Lemma opt_offset_sound s p d oo i' :
  opt time_offset (mkIn s p d) = Ok oo i' ->
  (oo = None /\ i' = mkIn s p d)
  \/ exists t o r, oo = Some o /\ s = t ++ r /\ time_offset_tok t o
                   /\ i' = mkIn r (p + N.of_nat (length t))%N d.
Proof.
  intro Hok. pose proof (opt_offset_nf s p d) as H.
  destruct s as [|b r].
  { rewrite H in Hok. injection Hok as <- <-. left. split; reflexivity. }
  destruct (byte_eqb b x5a || byte_eqb b x7a) eqn:Ez.
  { rewrite H in Hok. injection Hok as <- <-. right. exists [b], OffZ, r.
    split; [reflexivity|]. split; [reflexivity|]. split; [|reflexivity].
    left. split; [|reflexivity]. apply orb_true_iff in Ez as [E|E]; apply byte_eqb_eq in E; subst b; auto. }
  destruct (sign_of b) as [sg|] eqn:Esg.
  2:{ rewrite H in Hok. injection Hok as <- <-. left. split; reflexivity. }
  destruct (hm5 r) as [[[h mi] q]|] eqn:Eh; [|exfalso; eapply not_ok_hard; eassumption].
  destruct ((23 <? h)%N || (59 <? mi)%N) eqn:Eb; [exfalso; eapply not_ok_hard; eassumption|].
  rewrite H in Hok. injection Hok as <- <-.
  apply hm5_inv in Eh as (th & tmi & -> & Hh & Hm).
  pose proof (digits_tok_len _ _ _ Hh) as Lh. pose proof (digits_tok_len _ _ _ Hm) as Lm.
  right. exists ([b] ++ th ++ [x3a] ++ tmi), (OffCustom (sg * Z.of_N (h * 60 + mi))%Z), q.
  split; [reflexivity|]. split; [rewrite <- !app_assoc; reflexivity|]. split.
  - right. destruct (sign_of_tok b sg Esg) as (neg & Hsg & Hz).
    exists [b], neg, th, tmi, h, mi. split; [reflexivity|]. split; [exact Hsg|].
    split; [exact Hh|]. split; [exact Hm|]. split; [lia|]. split; [lia|]. rewrite Hz. reflexivity.
  - apply mkIn_eq. rewrite !app_length, Lh, Lm. cbn [length]. lia.
Qed.

Lemma opt_offset_complete t o r p d :
  time_offset_tok t o ->
  opt time_offset (mkIn (t ++ r) p d) = Ok (Some o) (mkIn r (p + N.of_nat (length t))%N d).
Proof.
  intros [[Ht ->]|(sg & neg & th & tmi & h & mi & -> & Hsg & Hh & Hm & Bh & Bm & ->)].
  - pose proof (opt_offset_nf (t ++ r) p d) as H.
    destruct Ht as [-> | ->]; cbn [app] in *.
    + change (byte_eqb x5a x5a || byte_eqb x5a x7a) with true in H. cbv iota in H. exact H.
    + change (byte_eqb x7a x5a || byte_eqb x7a x7a) with true in H. cbv iota in H. exact H.
  - pose proof (digits_tok_len _ _ _ Hh) as Lh. pose proof (digits_tok_len _ _ _ Hm) as Lm.
    destruct (sign_tok_of sg neg Hsg) as (b & z & -> & Ez & Eb & Hz).
    assert (Hlen : length ([b] ++ th ++ [x3a] ++ tmi) = 6%nat) by (rewrite !app_length, Lh, Lm; reflexivity).
    rewrite Hlen.
    replace (([b] ++ th ++ [x3a] ++ tmi) ++ r) with ([b] ++ th ++ [x3a] ++ tmi ++ r)
      by (rewrite <- !app_assoc; reflexivity).
    pose proof (opt_offset_nf ([b] ++ th ++ [x3a] ++ tmi ++ r) p d) as H. cbn [app] in H.
    rewrite Eb, Ez in H. change (x3a :: tmi ++ r) with ([x3a] ++ tmi ++ r) in H.
    rewrite (hm5_ok th tmi h mi r Hh Hm) in H.
    destruct ((23 <? h)%N || (59 <? mi)%N) eqn:E; [lia|].
    cbn [app] in H |- *. rewrite H, Hz. apply f_equal. apply mkIn_eq. lia.
Qed.

(* what cannot start an offset *)
Definition offset_stop (r : bytes) : Prop :=
  match r with [] => True | b :: _ => b <> x5a /\ b <> x7a /\ b <> x2b /\ b <> x2d end.

Lemma dt_stop_offset_stop r : dt_stop r -> offset_stop r.
Proof. destruct r as [|b r]; [trivial|]. intros (_ & _ & _ & _ & H1 & H2 & H3 & H4 & _). repeat split; assumption. Qed.

Lemma opt_offset_none r p d : offset_stop r -> opt time_offset (mkIn r p d) = Ok None (mkIn r p d).
Proof.
  intro Hs. pose proof (opt_offset_nf r p d) as H. destruct r as [|b r']; [exact H|].
  destruct Hs as (H1 & H2 & H3 & H4).
  apply byte_eqb_neq in H1, H2, H3, H4. rewrite H1, H2 in H. cbn [orb] in H.
  unfold sign_of in H. change plus with x2b in H. change dash with x2d in H. rewrite H3, H4 in H. exact H.
Qed.

(* the first byte of an offset is neither a digit nor "." *)
Lemma offset_tok_follow t o r : time_offset_tok t o -> time_follow (t ++ r).
Proof.
  intros [[[->| ->] _]|(sg & neg & th & tmi & h & mi & -> & [[-> _]|[-> _]] & _)];
    cbn [app time_follow]; (split; [reflexivity|discriminate]).
Qed.

(* ================================================================================================ *)
(* what follows the date: [ time-delim partial-time [ time-offset ] ]                               *)
(* ================================================================================================ *)
Lemma time_delim_eqb b : Abnf.time_delim b = byte_eqb b x54 || byte_eqb b x74 || byte_eqb b x20.
Proof.
  rewrite !byte_eqb_n. unfold Abnf.time_delim, rng.
  change (b2n x54) with 84%N. change (b2n x74) with 116%N. change (b2n x20) with 32%N. lia.
Qed.

Lemma after_date_sound s p d o i' :
  after_date (mkIn s p d) = Ok o i' ->
  (o = None /\ i' = mkIn s p d)
  \/ exists dl tt tz tm off r,
       s = [dl] ++ tt ++ tz ++ r /\ Abnf.time_delim dl = true /\ partial_time_tok tt tm
       /\ ((tz = [] /\ off = None) \/ exists o', off = Some o' /\ time_offset_tok tz o')
       /\ o = Some (tm, off) /\ i' = mkIn r (p + N.of_nat (length ([dl] ++ tt ++ tz)))%N d.
Proof.
  intro Hok. destruct s as [|b r2].
  { unfold after_date, opt, bind, Datetime.time_delim, one_of in Hok. cbn [rest] in Hok.
    injection Hok as <- <-. left. split; reflexivity. }
  unfold after_date in Hok. unfold opt at 1 in Hok. unfold Datetime.time_delim in Hok.
  rewrite bind_one_of in Hok. rewrite in_class_delim in Hok. rewrite <- time_delim_eqb in Hok.
  destruct (Abnf.time_delim b) eqn:Ed.
  2:{ injection Hok as <- <-. left. split; reflexivity. }
  unfold bind at 1 in Hok.
  destruct (partial_time (mkIn r2 (p + 1)%N d)) as [tm i3|e j|e j|st] eqn:EP; try discriminate Hok.
  2:{ injection Hok as <- <-. left. split; reflexivity. }
  apply partial_time_sound in EP as (tt & r3 & -> & Htt & ->).
  unfold bind at 1 in Hok.
  destruct (opt time_offset (mkIn r3 (p + 1 + N.of_nat (length tt))%N d)) as [oo i4|e j|e j|st] eqn:EO;
    try discriminate Hok.
  2:{ injection Hok as <- <-. left. split; reflexivity. }
  unfold ret in Hok. injection Hok as <- <-.
  apply opt_offset_sound in EO as [[-> ->]|(tz & o' & r & -> & -> & Htz & ->)].
  - right. exists b, tt, [], tm, None, r3. split; [reflexivity|]. split; [exact Ed|].
    split; [exact Htt|]. split; [left; split; reflexivity|]. split; [reflexivity|].
    apply mkIn_eq. rewrite !app_length. cbn [length]. lia.
  - right. exists b, tt, tz, tm, (Some o'), r. split; [reflexivity|]. split; [exact Ed|].
    split; [exact Htt|]. split; [right; exists o'; split; [reflexivity|exact Htz]|]. split; [reflexivity|].
    apply mkIn_eq. rewrite !app_length. cbn [length]. lia.
Qed.

(* nothing that could continue the date: the optional tail is empty *)
Lemma after_date_none r p d : dt_stop r -> after_date (mkIn r p d) = Ok None (mkIn r p d).
Proof.
  intro Hs. destruct r as [|b r'].
  { unfold after_date, opt, bind, Datetime.time_delim, one_of. cbn [rest]. reflexivity. }
  unfold after_date. unfold opt at 1. unfold Datetime.time_delim.
  rewrite bind_one_of. rewrite in_class_delim.
  destruct Hs as (_ & _ & HT & Ht & _ & _ & _ & _ & Hsp).
  apply byte_eqb_neq in HT, Ht. rewrite HT, Ht. cbn [orb].
  destruct (byte_eqb b x20) eqn:Esp; [|reflexivity].
  apply byte_eqb_eq in Esp. specialize (Hsp Esp).
  assert (Hst : stops is_digit r') by (destruct r' as [|c r'']; [exact I|exact Hsp]).
  destruct (partial_time_soft_nodigit r' (p + 1)%N d Hst) as (e & j & EP).
  unfold bind at 1. rewrite EP. reflexivity.
Qed.

Lemma after_date_time dl tt tz tm off r p d :
  Abnf.time_delim dl = true -> partial_time_tok tt tm ->
  ((tz = [] /\ off = None /\ time_follow r /\ offset_stop r)
   \/ exists o', off = Some o' /\ time_offset_tok tz o') ->
  after_date (mkIn ([dl] ++ tt ++ tz ++ r) p d)
  = Ok (Some (tm, off)) (mkIn r (p + N.of_nat (length ([dl] ++ tt ++ tz)))%N d).
Proof.
  intros Hdl Htt Htz. cbn [app]. unfold after_date. unfold opt at 1. unfold Datetime.time_delim.
  rewrite bind_one_of. rewrite in_class_delim. rewrite <- time_delim_eqb. rewrite Hdl.
  unfold bind at 1.
  assert (Hfol : time_follow (tz ++ r)).
  { destruct Htz as [(-> & _ & Hf & _)|(o' & _ & Ho)]; [exact Hf|]. eapply offset_tok_follow. exact Ho. }
  rewrite (partial_time_complete tt tm (tz ++ r) (p + 1)%N d Htt Hfol).
  unfold bind at 1.
  destruct Htz as [(-> & -> & _ & Hos)|(o' & -> & Ho)].
  - cbn [app]. rewrite (opt_offset_none r _ d Hos). unfold ret. apply f_equal. apply mkIn_eq.
    cbn [length]. rewrite !app_length. cbn [length]. lia.
  - rewrite (opt_offset_complete tz o' r _ d Ho). unfold ret. apply f_equal. apply mkIn_eq.
    cbn [length]. rewrite !app_length. cbn [length]. lia.
Qed.

(* ================================================================================================ *)
(* date-time                                                                                        *)
(* ================================================================================================ *)
Lemma date_time_unf i :
  date_time i =
  match full_date i with
  | Ok dt i1 =>
    match after_date i1 with
    | Ok o i2 => Ok (mk_after dt o) i2
    | Bt e j => context (pmap time_only_dt partial_time) i
    | Cut e j => Cut (mkErr (e_cause e) true) j
    | Panic st => Panic st
    end
  | Bt e j => context (pmap time_only_dt partial_time) i
  | Cut e j => Cut (mkErr (e_cause e) true) j
  | Panic st => Panic st
  end.
Proof.
  unfold date_time, alt. unfold context at 1. unfold bind at 1.
  destruct (full_date i) as [dt i1|e j|e j|st]; try reflexivity.
  unfold bind at 1. fold after_date.
  destruct (after_date i1) as [o i2|e j|e j|st]; reflexivity.
Qed.

Lemma after_date_not_bt i e j : after_date i = Bt e j -> False.
Proof. unfold after_date, opt. destruct (bind _ _ i); discriminate. Qed.

Lemma splits_mk' s t r p q d :
  s = t ++ r -> q = (p + N.of_nat (length t))%N -> splits (mkIn s p d) t (mkIn r q d).
Proof. intros -> ->. apply splits_mk. Qed.

Lemma partial_time_tok_shape t tm : partial_time_tok t tm -> exists a b t', t = a :: b :: x3a :: t'.
Proof.
  intros (th & tmi & ts & tf & h & mi & s & ns & -> & (Lh & _) & _).
  destruct th as [|a [|b [|c th]]]; try discriminate Lh. eexists _, _, _. reflexivity.
Qed.

Theorem date_time_sound i d i' : date_time i = Ok d i' -> exists t, date_time_tok t d /\ splits i t i'.
Proof.
  destruct i as [s p dp]. rewrite date_time_unf.
  destruct (full_date (mkIn s p dp)) as [dt i1|e j|e j|st] eqn:EF; try discriminate.
  - apply full_date_sound in EF as (td & r1 & -> & Htd & ->).
    destruct (after_date (mkIn r1 (p + N.of_nat (length td))%N dp)) as [o i2|e j|e j|st] eqn:EA;
      try discriminate.
    2:{ exfalso. eapply after_date_not_bt. exact EA. }
    intro H. injection H as <- <-.
    apply after_date_sound in EA
      as [[-> ->]|(dl & tt & tz & tm & off & r & -> & Hdl & Htt & Htz & -> & ->)].
    + exists td. split; [|apply splits_mk].
      right. right. left. exists dt. split; [exact Htd|reflexivity].
    + destruct Htz as [[-> ->]|(o' & -> & Htz)].
      * exists (td ++ [dl] ++ tt). split.
        -- right. left. exists td, dl, tt, dt, tm. repeat split; assumption.
        -- apply splits_mk'; [rewrite <- !app_assoc; reflexivity|].
           rewrite !app_length. cbn [length]. lia.
      * exists (td ++ [dl] ++ tt ++ tz). split.
        -- left. exists td, dl, tt, tz, dt, tm, o'. repeat split; assumption.
        -- apply splits_mk'; [rewrite <- !app_assoc; reflexivity|].
           rewrite !app_length. cbn [length]. lia.
  - intro H. apply context_inv in H. apply pmap_inv in H as (tm & H & ->).
    apply partial_time_sound in H as (t & r & -> & Ht & ->).
    exists t. split; [|apply splits_mk].
    right. right. right. exists tm. split; [exact Ht|reflexivity].
Qed.

Theorem date_time_complete i t d r :
  date_time_tok t d -> rest i = t ++ r -> dt_stop r -> date_time i = Ok d (adv t i).
Proof.
  destruct i as [s p dp]. cbn [rest]. intros Htok -> Hstop. rewrite adv_mk. rewrite date_time_unf.
  destruct Htok as [(td & dl & tt & tz & dt & tm & o & -> & Htd & Hdl & Htt & Htz & ->)
                   |[(td & dl & tt & dt & tm & -> & Htd & Hdl & Htt & ->)
                   |[(dt & Htd & ->)|(tm & Htt & ->)]]].
  - replace ((td ++ [dl] ++ tt ++ tz) ++ r) with (td ++ ([dl] ++ tt ++ tz ++ r))
      by (rewrite <- !app_assoc; reflexivity).
    rewrite (full_date_complete td dt _ p dp Htd).
    rewrite (after_date_time dl tt tz tm (Some o) r _ dp Hdl Htt)
      by (right; exists o; split; [reflexivity|exact Htz]).
    unfold mk_after. apply f_equal. apply mkIn_eq. rewrite (app_length td). lia.
  - replace ((td ++ [dl] ++ tt) ++ r) with (td ++ ([dl] ++ tt ++ [] ++ r))
      by (rewrite <- !app_assoc; reflexivity).
    rewrite (full_date_complete td dt _ p dp Htd).
    rewrite (after_date_time dl tt [] tm None r _ dp Hdl Htt)
      by (left; split; [reflexivity|]; split; [reflexivity|]; split;
          [apply dt_stop_time_follow; exact Hstop|apply dt_stop_offset_stop; exact Hstop]).
    unfold mk_after. apply f_equal. apply mkIn_eq. rewrite app_nil_r. rewrite (app_length td). lia.
  - rewrite (full_date_complete t dt r p dp Htd).
    rewrite (after_date_none r _ dp Hstop). reflexivity.
  - destruct (partial_time_tok_shape t tm Htt) as (a & b & t' & Et).
    assert (Hsoft : soft (full_date (mkIn (t ++ r) p dp))).
    { rewrite Et. cbn [app]. apply full_date_soft3. reflexivity. }
    destruct Hsoft as (e & j & EF). rewrite EF.
    unfold context, pmap.
    rewrite (partial_time_complete t tm r p dp Htt (dt_stop_time_follow r Hstop)). reflexivity.
Qed.

Corollary date_time_cut_only i e j :
  date_time i = Cut e j -> forall t d r, date_time_tok t d -> rest i = t ++ r -> dt_stop r -> False.
Proof.
  intros Hcut t d r Htok Hrest Hstop.
  rewrite (date_time_complete i t d r Htok Hrest Hstop) in Hcut. discriminate.
Qed.

(* ================================================================================================ *)
(* the values of the grammar are in range; a date-time starts with a digit                          *)
(* ================================================================================================ *)
Lemma partial_time_tok_ok t tm : partial_time_tok t tm -> time_ok tm = true.
Proof.
  intros (th & tmi & ts & tf & h & mi & s & ns & -> & _ & _ & _ & Hf & Bh & Bm & Bs & ->).
  assert (Bn : (ns <= 999999999)%N).
  { destruct Hf as [[_ ->]|(ds & _ & _ & Hd & ->)]; [lia|]. apply nanos_bound. exact Hd. }
  unfold time_ok. cbn [hour minute second nanosecond]. lia.
Qed.

Lemma time_offset_tok_ok t o : time_offset_tok t o -> offset_ok o = true.
Proof.
  intros [[_ ->]|(sg & neg & th & tmi & h & mi & _ & _ & _ & _ & Bh & Bm & ->)]; [reflexivity|].
  unfold offset_ok, signed. destruct neg; lia.
Qed.

Lemma full_date_tok_ok t dt : full_date_tok t dt -> date_ok dt = true.
Proof. intros (ty & tm & td & y & m & dd & _ & _ & _ & _ & _ & H). exact H. Qed.

Theorem date_time_tok_in_range t d : date_time_tok t d -> DatetimeSpec.in_range d = true.
Proof.
  intros [(td & dl & tt & tz & dt & tm & o & _ & Htd & _ & Htt & Htz & ->)
         |[(td & dl & tt & dt & tm & _ & Htd & _ & Htt & ->)
         |[(dt & Htd & ->)|(tm & Htt & ->)]]];
    unfold in_range; cbn [d_date d_time d_offset].
  - rewrite (full_date_tok_ok _ _ Htd), (partial_time_tok_ok _ _ Htt), (time_offset_tok_ok _ _ Htz).
    reflexivity.
  - rewrite (full_date_tok_ok _ _ Htd), (partial_time_tok_ok _ _ Htt). reflexivity.
  - exact (full_date_tok_ok _ _ Htd).
  - exact (partial_time_tok_ok _ _ Htt).
Qed.

Lemma full_date_tok_head t dt : full_date_tok t dt -> exists b t', t = b :: t' /\ Abnf.digit b = true.
Proof.
  intros (ty & tm & td & y & m & dd & -> & Hy & _).
  destruct (digits_tok_head _ _ _ Hy) as (b & t' & -> & Hb).
  exists b. eexists. split; [reflexivity|exact Hb].
Qed.

Lemma partial_time_tok_head t tm : partial_time_tok t tm -> exists b t', t = b :: t' /\ Abnf.digit b = true.
Proof.
  intros (th & tmi & ts & tf & h & mi & s & ns & -> & Hh & _).
  destruct (digits_tok_head _ _ _ Hh) as (b & t' & -> & Hb).
  exists b. eexists. split; [reflexivity|exact Hb].
Qed.

Lemma date_time_tok_head t d : date_time_tok t d -> exists b t', t = b :: t' /\ Abnf.digit b = true.
Proof.
  intros [(td & dl & tt & tz & dt & tm & o & -> & Htd & _)
         |[(td & dl & tt & dt & tm & -> & Htd & _)
         |[(dt & Htd & _)|(tm & Htt & _)]]].
  - destruct (full_date_tok_head _ _ Htd) as (b & t' & -> & Hb).
    exists b. eexists. split; [reflexivity|exact Hb].
  - destruct (full_date_tok_head _ _ Htd) as (b & t' & -> & Hb).
    exists b. eexists. split; [reflexivity|exact Hb].
  - exact (full_date_tok_head _ _ Htd).
  - exact (partial_time_tok_head _ _ Htt).
Qed.
