(* Proofs/EditWF.v — property C08: no operation leaves an `Item::None` placeholder in the document.
   `no_none (abs t)` holds of every parsed document (decidable; checked in Props/C08.v on an example)
   and is kept by every applicable operation — so the side condition `snd e <> INone` of C08_verbatim
   and the `PNone` constructor of the plain tree never matter on documents reached from a parsed one. *)
From TV Require Import Base.Prelude.
From TV Require Import Spec.EditSpec Model.Edit Proofs.ContainersOrder Proofs.EditRefineBase Proofs.EditRefine.

Definition nn (x : plain) : Prop := no_none x = true.
Definition nnkv (kv : bytes * plain) : bool := match kv with (_, c) => no_none c end.
Definition nnl (l : entries) : Prop := forallb nnkv l = true.

Lemma plain_ind2 (P : plain -> Prop) :
  P PNone -> (forall s, P (PScalar s)) ->
  (forall a l, Forall P l -> P (PArr a l)) ->
  (forall il d l, Forall (fun kv => P (snd kv)) l -> P (PTab il d l)) ->
  forall x, P x.
Proof.
  intros Hn Hs Ha Ht.
  exact (fix rec (x : plain) : P x :=
           match x with
           | PNone => Hn
           | PScalar s => Hs s
           | PArr a l => Ha a l ((fix go (l : list plain) : Forall P l :=
                                    match l with
                                    | [] => Forall_nil _
                                    | y :: tl => Forall_cons y (rec y) (go tl)
                                    end) l)
           | PTab il d l => Ht il d l ((fix go (l : entries) : Forall (fun kv => P (snd kv)) l :=
                                          match l with
                                          | [] => Forall_nil _
                                          | kv :: tl =>
                                            Forall_cons kv (match kv as kv0 return P (snd kv0) with (k, c) => rec c end) (go tl)
                                          end) l)
           end).
Qed.

Lemma nn_tab il d l : nn (PTab il d l) <-> nnl l.
Proof. reflexivity. Qed.
Lemma nn_arr a l : nn (PArr a l) <-> forallb no_none l = true.
Proof. reflexivity. Qed.

Lemma nnl_app l1 l2 : nnl (l1 ++ l2) <-> nnl l1 /\ nnl l2.
Proof. unfold nnl. rewrite forallb_app, andb_true_iff. reflexivity. Qed.

Lemma nnl_r_upd k g l : (forall x, nn x -> nn (g x)) -> nnl l -> nnl (r_upd k g l).
Proof.
  intro Hg. unfold nnl. induction l as [|[k' v] l IH]; simpl; [auto|].
  intro H. apply andb_true_iff in H as [H1 H2].
  destruct (bytes_eqb k' k); simpl; apply andb_true_iff; split; auto. apply Hg. exact H1.
Qed.
Lemma nnl_r_del k l : nnl l -> nnl (r_del k l).
Proof.
  unfold nnl. induction l as [|[k' v] l IH]; simpl; [auto|].
  intro H. apply andb_true_iff in H as [H1 H2].
  destruct (bytes_eqb k' k); simpl; [exact H2|]. apply andb_true_iff; split; auto.
Qed.
Lemma nnl_forget k l : nnl l -> nnl (r_forget k l).
Proof. intro H. unfold r_forget. destruct (r_get k l) as [[| | |]|]; auto. apply nnl_r_del. exact H. Qed.
Lemma nnl_put k x l : nn x -> nnl l -> nnl (e_put k x l).
Proof.
  intros Hx Hl. rewrite e_put_rec. pose proof (nnl_forget k l Hl) as Hf. destruct (r_get k (r_forget k l)).
  - apply nnl_r_upd; auto.
  - apply nnl_app. split; [exact Hf|]. unfold nnl. simpl. rewrite Hx. reflexivity.
Qed.
Lemma nnl_get k l c : nnl l -> r_get k l = Some c -> nn c.
Proof.
  unfold nnl. induction l as [|[k' v] l IH]; simpl; [discriminate|].
  intros H G. apply andb_true_iff in H as [H1 H2].
  destruct (bytes_eqb k' k); [injection G as <-; exact H1|auto].
Qed.
Lemma nnl_of_list l : nnl l -> nnl (e_of_list l).
Proof.
  unfold e_of_list. assert (G : forall acc, nnl acc -> nnl l -> nnl (fold_left (fun a kv => e_put (fst kv) (snd kv) a) l acc)).
  { induction l as [|[k c] l IH]; intros acc Ha Hl; simpl; [exact Ha|].
    unfold nnl in Hl. simpl in Hl. apply andb_true_iff in Hl as [H1 H2].
    apply IH; [apply nnl_put; assumption|exact H2]. }
  apply G. reflexivity.
Qed.

Lemma nn_rv_upd n g (l : list plain) :
  (forall x, nn x -> nn (g x)) -> forallb no_none l = true -> forallb no_none (rv_upd n g l) = true.
Proof.
  intro Hg. revert n. induction l as [|x l IH]; intros [|n] H; simpl in *; auto;
    apply andb_true_iff in H as [H1 H2]; apply andb_true_iff; split; auto. apply Hg. exact H1.
Qed.
Lemma nn_rv_del n (l : list plain) : forallb no_none l = true -> forallb no_none (rv_del n l) = true.
Proof.
  revert n. induction l as [|x l IH]; intros [|n] H; simpl in *; auto;
    apply andb_true_iff in H as [H1 H2]; [exact H2|]. apply andb_true_iff; split; auto.
Qed.
Lemma nn_v_ins n x (l : list plain) : nn x -> forallb no_none l = true -> forallb no_none (v_ins n x l) = true.
Proof.
  intros Hx Hl. unfold v_ins. rewrite forallb_app. simpl. rewrite Hx.
  rewrite <- (firstn_skipn n l), forallb_app in Hl. apply andb_true_iff in Hl as [H1 H2].
  rewrite H1, H2. reflexivity.
Qed.

Lemma nn_pv v : nn (pv_plain v).
Proof.
  induction v as [z|s|b|l IH|l IH] using pv_ind2; try reflexivity.
  - simpl. apply nn_arr. rewrite forallb_forall. intros x Hx. apply in_map_iff in Hx as (y & <- & Hy).
    rewrite Forall_forall in IH. apply IH. exact Hy.
  - simpl. apply nn_tab. apply nnl_of_list. unfold nnl. rewrite forallb_forall.
    intros x Hx. apply in_map_iff in Hx as ([k y] & <- & Hy).
    rewrite Forall_forall in IH. apply (IH (k, y) Hy).
Qed.

Lemma nn_make_value x : nn x -> nn (spec_make_value x).
Proof.
  induction x as [|s|a l IH|il d l IH] using plain_ind2; intro H; try exact H.
  - destruct a; [|exact H]. simpl. apply nn_arr. apply nn_arr in H.
    rewrite forallb_forall in *. intros y Hy. apply in_map_iff in Hy as (z & <- & Hz).
    rewrite Forall_forall in IH. apply IH; [exact Hz|]. apply H. exact Hz.
  - destruct il; [exact H|]. simpl. apply nn_tab. apply nn_tab in H. unfold nnl in *.
    rewrite forallb_forall in *. intros y Hy. apply in_map_iff in Hy as ([k z] & <- & Hz).
    rewrite Forall_forall in IH. apply (IH (k, z) Hz). apply (H (k, z) Hz).
Qed.
Lemma nn_into_table x : nn x -> nn (spec_into_table x).
Proof. destruct x as [| | |[|] d l]; auto. Qed.
Lemma nn_into_aot x : nn x -> nn (spec_into_aot x).
Proof.
  destruct x as [| |[|] l|]; auto. intro H. simpl. destruct l as [|y l]; [exact H|].
  destruct (forallb is_inline_tab (y :: l)); [|exact H].
  apply nn_arr. apply nn_arr in H. rewrite forallb_forall in *. intros z Hz.
  apply in_map_iff in Hz as (w & <- & Hw). apply nn_into_table. apply H. exact Hw.
Qed.

(* sort_values / sort_values_by: the entries are permuted, the dotted children sorted in turn *)
Lemma nn_sorts psrt psort :
  sorts_plain psrt psort -> (forall il l, Permutation.Permutation (psrt il l) l) ->
  forall x, nn x -> nn (psort x).
Proof.
  intros Hp Hperm. induction x as [|s|a l IH|il d l IH] using plain_ind2; intro H; rewrite Hp; try exact H.
  apply nn_tab. apply nn_tab in H. unfold nnl in *.
  rewrite forallb_forall in *. intros y Hy. apply (Permutation.Permutation_in _ (Hperm il _)) in Hy.
  apply in_map_iff in Hy as ([k z] & <- & Hz).
  rewrite Forall_forall in IH. specialize (IH (k, z) Hz). specialize (H (k, z) Hz). simpl in *.
  destruct z as [| | |il' [|] l']; try exact H.
  destruct (Bool.eqb il il'); [apply IH; exact H|exact H].
Qed.

Lemma nn_spec_at p g : (forall x, nn x -> nn (g x)) -> forall t, nn t -> nn (spec_at p g t).
Proof.
  intro Hg. induction p as [|s p IH]; intros t H; [apply Hg; exact H|].
  destruct s as [k|n]; simpl.
  - destruct t as [| | |il d l]; try exact H. apply nn_tab. rewrite e_upd_rec. apply nnl_r_upd; auto.
  - destruct t as [| |a l|]; try exact H. apply nn_arr. rewrite v_upd_rec. apply nn_rv_upd; auto.
Qed.

Lemma nn_on_tab g : (forall l, nnl l -> nnl (g l)) -> forall x, nn x -> nn (on_tab g x).
Proof. intros Hg [| | |il d l] H; try exact H. apply nn_tab. apply Hg. exact H. Qed.
Lemma nn_on_std_tab g : (forall l, nnl l -> nnl (g l)) -> forall x, nn x -> nn (on_std_tab g x).
Proof. intros Hg [| | |[|] d l] H; try exact H. apply nn_tab. apply Hg. exact H. Qed.
Lemma nn_on_arr a g : (forall l, forallb no_none l = true -> forallb no_none (g l) = true) ->
  forall x, nn x -> nn (on_arr a g x).
Proof. intros Hg [| |b l|] H; try exact H. simpl. destruct (Bool.eqb b a); [|exact H]. apply nn_arr. apply Hg. exact H. Qed.

Lemma nn_iset ks x : nn x -> forall t, nn t \/ t = PNone -> nn (spec_iset ks x t).
Proof.
  intro Hx. induction ks as [|k ks IH]; intros t Ht; [exact Hx|].
  simpl. destruct t as [|s|a l|il d l].
  - unfold nn. simpl. rewrite andb_true_r. apply IH. right. reflexivity.
  - destruct Ht as [H|H]; [exact H|discriminate].
  - destruct Ht as [H|H]; [exact H|discriminate].
  - destruct Ht as [H|H]; [|discriminate]. apply nn_tab. apply nnl_put; [|exact H].
    apply IH. rewrite e_get_rec, e_forget_rec.
    destruct (r_get k (r_forget k l)) as [c|] eqn:G; [left|right; reflexivity].
    eapply nnl_get; [apply nnl_forget; exact H|exact G].
Qed.

Theorem spec_apply_no_none o x : nn x -> nn (spec_apply o x).
Proof.
  intro H. destruct o as [q k v|q k|q k|q k|q v|q i v|q i v|q i|q|q i|q|q|q k|q k|q k|ks y|q cm]; simpl.
  - apply nn_spec_at; [|exact H]. apply nn_on_tab. intros l Hl. apply nnl_put; [apply nn_pv|exact Hl].
  - apply nn_spec_at; [|exact H]. apply nn_on_std_tab. intros l Hl. apply nnl_put; [reflexivity|exact Hl].
  - apply nn_spec_at; [|exact H]. apply nn_on_std_tab. intros l Hl. apply nnl_put; [reflexivity|exact Hl].
  - apply nn_spec_at; [|exact H]. apply nn_on_tab. intros l Hl. rewrite e_del_rec. apply nnl_r_del. exact Hl.
  - apply nn_spec_at; [|exact H]. apply nn_on_arr. intros l Hl. rewrite forallb_app, Hl. simpl. rewrite (nn_pv v). reflexivity.
  - apply nn_spec_at; [|exact H]. apply nn_on_arr. intros l Hl. apply nn_v_ins; [apply nn_pv|exact Hl].
  - apply nn_spec_at; [|exact H]. apply nn_on_arr. intros l Hl. rewrite v_upd_rec. apply nn_rv_upd; [|exact Hl]. intros; apply nn_pv.
  - apply nn_spec_at; [|exact H]. apply nn_on_arr. intros l Hl. rewrite v_del_rec. apply nn_rv_del. exact Hl.
  - apply nn_spec_at; [|exact H]. apply nn_on_arr. intros l Hl. rewrite forallb_app, Hl. reflexivity.
  - apply nn_spec_at; [|exact H]. apply nn_on_arr. intros l Hl. rewrite v_del_rec. apply nn_rv_del. exact Hl.
  - apply nn_spec_at; [|exact H]. apply (nn_sorts _ _ spec_sort_plain). intros _ l. apply stable_sort_perm.
  - exact H.
  - apply nn_spec_at; [|exact H]. apply nn_on_std_tab. intros l Hl. rewrite e_upd_rec. apply nnl_r_upd; [apply nn_make_value|exact Hl].
  - apply nn_spec_at; [|exact H]. apply nn_on_std_tab. intros l Hl. rewrite e_upd_rec. apply nnl_r_upd; [apply nn_into_table|exact Hl].
  - apply nn_spec_at; [|exact H]. apply nn_on_std_tab. intros l Hl. rewrite e_upd_rec. apply nnl_r_upd; [apply nn_into_aot|exact Hl].
  - apply nn_iset; [|left; exact H]. destruct y; [apply nn_pv|reflexivity].
  - apply nn_spec_at; [|exact H]. apply (nn_sorts _ _ (spec_sort_by_plain cm)). intros il l. apply stable_sort_perm.
Qed.

Theorem step_no_none : forall t o t', apply o t = Some t' -> no_none (abs t) = true -> no_none (abs t') = true.
Proof. intros t o t' H Hn. rewrite (step_content _ _ _ H). apply spec_apply_no_none. exact Hn. Qed.

Theorem history_no_none : forall ops t, no_none (abs t) = true -> no_none (abs (apply_all ops t)) = true.
Proof.
  induction ops as [|o ops IH]; intros t H; [exact H|].
  unfold apply_all in *. simpl. apply IH. unfold apply_skip.
  destruct (apply o t) as [t'|] eqn:E; [eapply step_no_none; eauto|exact H].
Qed.
