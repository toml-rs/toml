(* Proofs/SpansBd.v — C14, character boundaries, part 4: every span endpoint stored in the tree satisfies G,
   for any predicate G on offsets that holds at the cursor positions where spans are recorded (instantiated
   with "is a character boundary of the source" in Proofs/SpansBdDoc.v).

   The state machine and the inline-table builder never invent an offset: every endpoint they store is an
   endpoint they were given, or the minimum / maximum of two such. *)
From TV Require Import Base.Prelude Base.Winnow.
From TV Require Import Model.Tree Model.Parse Model.Document.
From TV Require Import Proofs.NoPanicState.
From TV Require Import Proofs.SpansDefs Proofs.SpansBase.
From TV Require Import Proofs.KvFacts.
From TV Require Import Proofs.DocumentOps.
Require Import Lia ZifyBool ZifyN ZifyNat.

Section G.
  Variable G : N -> bool.

  Definition sp_g (sp : N * N) : bool := G (fst sp) && G (snd sp).
  Definition osp_g (o : ospan) : bool := match o with Some sp => sp_g sp | None => true end.
  Definition raw_g (r : raw) : bool := osp_g (raw_span r).
  Definition oraw_g (o : option raw) : bool := match o with Some r => raw_g r | None => true end.
  Definition decor_g (d : decor) : bool := oraw_g (d_prefix d) && oraw_g (d_suffix d).
  Definition key_g (k : key) : bool := oraw_g (k_repr k) && decor_g (k_leaf k) && decor_g (k_dotted k).

  (* of a tree: of every span that `all_spans` (Proofs/SpansDefs.v) collects in it *)
  Definition value_g (v : value) : bool := forallb sp_g (value_spans v).
  Definition item_g (it : item) : bool := forallb sp_g (item_spans it).
  Definition tbl_g (t : tbl) : bool := forallb sp_g (tbl_spans t).
  Definition kv_g (kv : key * item) : bool := key_g (fst kv) && item_g (snd kv).
  Definition items_g (m : kvs) : bool := forallb kv_g m.
  Definition keys_g (l : list key) : bool := forallb key_g l.

  Lemma ospan_spans_g o : forallb sp_g (ospan_spans o) = osp_g o.
  Proof. destruct o; [apply andb_true_r|reflexivity]. Qed.
  Lemma oraw_spans_g o : forallb sp_g (oraw_spans o) = oraw_g o.
  Proof. destruct o as [r|]; [apply ospan_spans_g|reflexivity]. Qed.
  Lemma decor_spans_g d : forallb sp_g (decor_spans d) = decor_g d.
  Proof. unfold decor_spans, decor_g. rewrite forallb_app, !oraw_spans_g. reflexivity. Qed.
  Lemma key_spans_g k : forallb sp_g (key_spans k) = key_g k.
  Proof. unfold key_spans, key_g. rewrite !forallb_app, oraw_spans_g, !decor_spans_g. apply andb_assoc. Qed.
  Lemma kvs_spans_g (l : kvs) : forallb sp_g (flat_map (fun kv => key_spans (fst kv) ++ item_spans (snd kv)) l) = items_g l.
  Proof.
    induction l as [|kv l IH]; [reflexivity|]. cbn [flat_map items_g forallb]. rewrite !forallb_app, IH, key_spans_g. reflexivity.
  Qed.

  (* the same, one level at a time *)
  Lemma andb_rot3 (a b c : bool) : a && (b && c) = c && b && a. Proof. destruct a, b, c; reflexivity. Qed.
  Lemma value_g_scalar s r d : value_g (VScalar s r d) = oraw_g r && decor_g d.
  Proof. unfold value_g; cbn [value_spans]. rewrite forallb_app, oraw_spans_g, decor_spans_g. reflexivity. Qed.
  Lemma value_g_array vals tr c d sp :
    value_g (VArray vals tr c d sp) = forallb item_g vals && raw_g tr && decor_g d && osp_g sp.
  Proof.
    unfold value_g; cbn [value_spans]. unfold raw_spans. rewrite !forallb_app, !ospan_spans_g, decor_spans_g, forallb_flat_map.
    apply andb_rot3.
  Qed.
  Lemma value_g_inline items pre im dt d sp :
    value_g (VInline items pre im dt d sp) = items_g items && raw_g pre && decor_g d && osp_g sp.
  Proof.
    unfold value_g; cbn [value_spans]. unfold raw_spans. rewrite !forallb_app, !ospan_spans_g, decor_spans_g, kvs_spans_g.
    apply andb_rot3.
  Qed.
  Lemma item_g_value v : item_g (IValue v) = value_g v. Proof. reflexivity. Qed.
  Lemma item_g_table t : item_g (ITable t) = tbl_g t. Proof. reflexivity. Qed.
  Lemma item_g_aot ts sp : item_g (IAot ts sp) = forallb tbl_g ts && osp_g sp.
  Proof. unfold item_g; cbn [item_spans]. rewrite forallb_app, ospan_spans_g, forallb_flat_map. apply andb_comm. Qed.
  Lemma item_g_inline items pre im dt d sp :
    item_g (IValue (VInline items pre im dt d sp)) = items_g items && raw_g pre && decor_g d && osp_g sp.
  Proof. apply (value_g_inline items pre im dt). Qed.
  Lemma tbl_g_items t : tbl_g t = items_g (t_items t) && decor_g (t_decor t) && osp_g (t_span t).
  Proof.
    destruct t. unfold tbl_g; cbn [tbl_spans t_items t_decor t_span].
    rewrite !forallb_app, ospan_spans_g, decor_spans_g, kvs_spans_g. apply andb_rot3.
  Qed.

  Lemma sp_g_pair a b : G a = true -> G b = true -> sp_g (a, b) = true.
  Proof. intros H1 H2. unfold sp_g; cbn [fst snd]. rewrite H1, H2. reflexivity. Qed.
  Lemma sp_g_fst sp : sp_g sp = true -> G (fst sp) = true.
  Proof. unfold sp_g. intro H. apply andb_true_iff in H. tauto. Qed.
  Lemma sp_g_snd sp : sp_g sp = true -> G (snd sp) = true.
  Proof. unfold sp_g. intro H. apply andb_true_iff in H. tauto. Qed.
  Lemma raw_with_span_g sp : sp_g sp = true -> raw_g (raw_with_span sp) = true.
  Proof. intro H. unfold raw_with_span. destruct (fst sp =? snd sp)%N; [reflexivity|exact H]. Qed.
  Lemma decor_g_new p s : raw_g p = true -> raw_g s = true -> decor_g (decor_new p s) = true.
  Proof. intros H1 H2. unfold decor_g, decor_new; cbn [d_prefix d_suffix oraw_g]. rewrite H1, H2. reflexivity. Qed.
  Lemma G_min a b : G a = true -> G b = true -> G (N.min a b) = true.
  Proof. intros H1 H2. destruct (N.min_dec a b) as [-> | ->]; assumption. Qed.
  Lemma G_max a b : G a = true -> G b = true -> G (N.max a b) = true.
  Proof. intros H1 H2. destruct (N.max_dec a b) as [-> | ->]; assumption. Qed.

  Lemma value_g_decorate v p s : value_g v = true -> raw_g p = true -> raw_g s = true -> value_g (value_decorate v p s) = true.
  Proof.
    intros Hv Hp Hs. pose proof (decor_g_new p s Hp Hs) as D.
    destruct v as [x r d|vals tr c d sp|items pre im dt d sp]; cbn [value_decorate].
    - rewrite value_g_scalar in *. apply andb_true_iff in Hv as [H1 _]. rewrite H1, D. reflexivity.
    - rewrite value_g_array in *. apply andb4 in Hv as (H1 & H2 & _ & H4). apply andb4. auto.
    - rewrite value_g_inline in *. apply andb4 in Hv as (H1 & H2 & _ & H4). apply andb4. auto.
  Qed.

  Lemma item_span_g v sp : item_g v = true -> item_span v = Some sp -> sp_g sp = true.
  Proof.
    intros H S. destruct v as [|val|t|ts asp]; cbn [item_span] in S; [discriminate| | |].
    - rewrite item_g_value in H. destruct val as [s r d|vals tr c d sp0|items pre im dt d sp0]; cbn [value_span] in S.
      + destruct r as [r|]; [|discriminate]. rewrite value_g_scalar in H. apply andb_true_iff in H as [H _].
        cbn [oraw_g] in H. unfold raw_g in H. rewrite S in H. exact H.
      + rewrite value_g_array in H. apply andb4 in H as (_ & _ & _ & H). subst sp0. exact H.
      + rewrite value_g_inline in H. apply andb4 in H as (_ & _ & _ & H). subst sp0. exact H.
    - rewrite item_g_table, tbl_g_items in H. apply andb3 in H as (_ & _ & H). rewrite S in H. exact H.
    - rewrite item_g_aot in H. apply andb_true_iff in H as [_ H]. subst asp. exact H.
  Qed.
  Lemma key_span_g k ks : key_g k = true -> key_span k = Some ks -> sp_g ks = true.
  Proof.
    unfold key_g, key_span. intros H E. apply andb3 in H as (H & _ & _). destruct (k_repr k) as [r|]; [|discriminate].
    cbn [oraw_g] in H. unfold raw_g in H. rewrite E in H. exact H.
  Qed.
  Lemma widen_g sp ks e : osp_g sp = true -> sp_g ks = true -> G e = true -> osp_g (widen sp ks e) = true.
  Proof.
    unfold widen. intros H1 H2 H3. destruct sp as [s|]; cbn [osp_g] in *; apply sp_g_pair; auto using sp_g_fst, sp_g_snd.
    - apply G_min; [apply sp_g_fst, H1|apply sp_g_fst, H2].
    - apply G_max; [apply sp_g_snd, H1|exact H3].
  Qed.

  (* ---- association lists -------------------------------------------------------------------------------------- *)
  Lemma items_g_get m k k' it : items_g m = true -> kv_get m k = Some (k', it) -> key_g k' = true /\ item_g it = true.
  Proof. intros H E. apply andb_true_iff. exact (kv_get_forallb kv_g _ _ _ _ H E). Qed.
  Lemma items_g_push m k v : items_g m = true -> key_g k = true -> item_g v = true -> items_g (kv_push m k v) = true.
  Proof. intros H1 H2 H3. apply kv_push_forallb; [exact H1|]. unfold kv_g; cbn [fst snd]. rewrite H2, H3. reflexivity. Qed.
  Lemma items_g_set m k v : items_g m = true -> item_g v = true -> items_g (kv_set m k v) = true.
  Proof.
    intros H1 H2. apply kv_set_forallb; [exact H1|]. unfold kv_g; cbn [fst snd]. intros k0 old _ H.
    apply andb_true_iff in H as [H _]. rewrite H, H2. reflexivity.
  Qed.
  Lemma items_g_remove m k : items_g m = true -> items_g (kv_remove m k) = true.
  Proof. apply kv_remove_forallb. Qed.
  Lemma tbl_g_set_items t m : tbl_g t = true -> items_g m = true -> tbl_g (t_set_items t m) = true.
  Proof.
    rewrite !tbl_g_items. intros H Hm. apply andb3 in H as (_ & H2 & H3). destruct t as [i d im dt p sp].
    cbn [t_set_items t_items t_decor t_span] in *. rewrite Hm, H2, H3. reflexivity.
  Qed.
  Lemma tbl_g_set_span t sp : tbl_g t = true -> osp_g sp = true -> tbl_g (t_set_span t sp) = true.
  Proof.
    rewrite !tbl_g_items. intros H Hs. apply andb3 in H as (H1 & H2 & _). destruct t as [i d im dt p sp0].
    cbn [t_set_span t_items t_decor t_span] in *. rewrite H1, H2, Hs. reflexivity.
  Qed.
  Lemma tbl_g_get_items t : tbl_g t = true -> items_g (t_items t) = true.
  Proof. rewrite tbl_g_items. intro H. apply andb3 in H. tauto. Qed.
  Lemma tbl_g_span t : tbl_g t = true -> osp_g (t_span t) = true.
  Proof. rewrite tbl_g_items. intro H. apply andb3 in H. tauto. Qed.

  Lemma tbl_g_get t k k' it : tbl_g t = true -> kv_get (t_items t) k = Some (k', it) -> item_g it = true.
  Proof. intros H E. exact (proj2 (items_g_get _ _ _ _ (tbl_g_get_items _ H) E)). Qed.
  Lemma tbl_g_set_entry t k it : tbl_g t = true -> item_g it = true -> tbl_g (t_set_items t (kv_set (t_items t) k it)) = true.
  Proof. intros H Hi. apply tbl_g_set_items; [exact H|]. apply items_g_set; [apply tbl_g_get_items, H|exact Hi]. Qed.
  Lemma tbl_g_push_entry t k it :
    tbl_g t = true -> key_g k = true -> item_g it = true -> tbl_g (t_set_items t (kv_push (t_items t) k it)) = true.
  Proof. intros H Hk Hi. apply tbl_g_set_items; [exact H|]. apply items_g_push; [apply tbl_g_get_items, H|exact Hk|exact Hi]. Qed.

  Lemma keys_g_rev l : keys_g (rev l) = keys_g l.
  Proof. apply forallb_rev. Qed.
  Lemma pop_key_g kp path k : keys_g kp = true -> pop_key kp = Some (path, k) -> keys_g path = true /\ key_g k = true.
  Proof.
    unfold pop_key. intros H E. rewrite <- keys_g_rev in H. destruct (rev kp) as [|last rinit]; [discriminate|].
    inversion E; subst. cbn [keys_g forallb] in H. apply andb_true_iff in H as [H1 H2]. rewrite keys_g_rev. auto.
  Qed.

  (* ---- inline tables ----------------------------------------------------------------------------------------------- *)
  Lemma inline_insert_g : forall path m dh pe k v m',
    items_g m = true -> keys_g path = true -> key_g k = true -> item_g v = true ->
    inline_insert m dh path pe k v = COk m' -> items_g m' = true.
  Proof.
    induction path as [|pk ptl IH]; intros m dh pe k v m' Hm Hp Hk Hv E; cbn [inline_insert] in E.
    - destruct (Bool.eqb dh pe); [discriminate|]. destruct (kv_get m (k_key k)); [discriminate|].
      inversion E; subst. apply items_g_push; assumption.
    - cbn [keys_g forallb] in Hp. apply andb_true_iff in Hp as [Hpk Hptl].
      destruct (kv_get m (k_key pk)) as [[k' it]|] eqn:Gt.
      + destruct (items_g_get _ _ _ _ Hm Gt) as [_ Hit]. destruct it as [|val| |]; try discriminate E.
        destruct val as [s r d|vals tr c d sp|sub pre imp dt dec sp]; try discriminate E.
        destruct (negb imp); [discriminate|].
        destruct (inline_insert sub dt ptl pe k v) as [sub'| |] eqn:R; try discriminate E. inversion E; subst.
        rewrite item_g_inline in Hit. apply andb4 in Hit as (H1 & H2 & H3 & H4).
        apply items_g_set; [exact Hm|]. rewrite item_g_inline. apply andb4. repeat split; auto.
        eapply IH; [exact H1|exact Hptl|exact Hk|exact Hv|exact R].
      + destruct (inline_insert [] true ptl pe k v) as [sub'| |] eqn:R; try discriminate E. inversion E; subst.
        apply items_g_push; [exact Hm|exact Hpk|]. rewrite item_g_inline. apply andb4.
        repeat split; auto. eapply IH; [|exact Hptl|exact Hk|exact Hv|exact R]; reflexivity.
  Qed.

  Definition pair_g (x : list key * (key * item)) : Prop :=
    keys_g (fst x) = true /\ key_g (fst (snd x)) = true /\ item_g (snd (snd x)) = true.

  Lemma table_from_pairs_loop_d_g : forall pairs m m',
    items_g m = true -> Forall pair_g pairs -> table_from_pairs_loop_d m pairs = COk m' -> items_g m' = true.
  Proof.
    induction pairs as [|[path [k v]] tl IH]; intros m m' Hm Hp E; cbn [table_from_pairs_loop_d] in E.
    - inversion E; subst. exact Hm.
    - inversion Hp as [|? ? Hx Htl]; subst. destruct Hx as (H1 & H2 & H3). cbn [fst snd] in *.
      destruct (check_depth _); [discriminate|].
      destruct (inline_insert m false path _ k v) as [m1| |] eqn:R; try discriminate E.
      eapply IH; [|exact Htl|exact E]. eapply inline_insert_g; eauto.
  Qed.

  Lemma inline_set_spans_g : forall path m ve,
    items_g m = true -> keys_g path = true -> (forall e, ve = Some e -> G e = true) ->
    items_g (inline_set_spans m path ve) = true.
  Proof.
    induction path as [|k ptl IH]; intros m ve Hm Hp Hve; cbn [inline_set_spans]; [exact Hm|].
    cbn [keys_g forallb] in Hp. apply andb_true_iff in Hp as [Hk Hptl].
    destruct (kv_get m (k_key k)) as [[k' it]|] eqn:Gt; [|exact Hm].
    destruct (items_g_get _ _ _ _ Hm Gt) as [_ Hit]. destruct it as [|val| |]; try exact Hm.
    destruct val as [s r d|vals tr c d sp|sub pre imp dt dec sp]; try exact Hm.
    rewrite item_g_inline in Hit. apply andb4 in Hit as (H1 & H2 & H3 & H4).
    apply items_g_set; [exact Hm|]. rewrite item_g_inline. apply andb4. repeat split; auto.
    destruct dt; [|exact H4]. destruct (key_span k) as [ks|] eqn:K; [|exact H4]. destruct ve as [e|]; [|exact H4].
    apply widen_g; [exact H4|eapply key_span_g; eauto|apply Hve; reflexivity].
  Qed.

  Lemma item_end_g v e : item_g v = true -> item_end v = Some e -> G e = true.
  Proof.
    unfold item_end. destruct (item_span v) as [sp|] eqn:S; [|discriminate]. intros H E. inversion E; subst.
    apply sp_g_snd. eapply item_span_g; eauto.
  Qed.

  Lemma inline_spans_pass_g : forall pairs m,
    items_g m = true -> Forall pair_g pairs -> items_g (inline_spans_pass m pairs) = true.
  Proof.
    unfold inline_spans_pass. induction pairs as [|[path [k v]] tl IH]; intros m Hm Hp; cbn [fold_left]; [exact Hm|].
    inversion Hp as [|? ? Hx Htl]; subst. apply IH; [|exact Htl]. destruct Hx as (H1 & H2 & H3). cbn [fst snd] in *.
    apply inline_set_spans_g; [exact Hm|exact H1|]. intros e E. eapply item_end_g; eauto.
  Qed.

  Lemma table_from_pairs_g pairs pre v :
    Forall pair_g pairs -> raw_g pre = true -> table_from_pairs pairs pre = TmOk v -> value_g v = true.
  Proof.
    intros Hp Hpre E. unfold table_from_pairs in E.
    destruct (table_from_pairs_loop_d [] pairs) as [m| |] eqn:R; try discriminate E. inversion E; subst.
    rewrite value_g_inline. apply andb4. repeat split; auto.
    apply inline_spans_pass_g; [|exact Hp]. eapply table_from_pairs_loop_d_g; [|exact Hp|exact R]. reflexivity.
  Qed.

  (* ---- keys ------------------------------------------------------------------------------------------------------------- *)
  Lemma key_g_set_leaf k d : key_g k = true -> decor_g d = true -> key_g (set_leaf k d) = true.
  Proof.
    unfold key_g, set_leaf; cbn [k_repr k_leaf k_dotted]. intros H Hd. apply andb3 in H as (H1 & _ & H3). rewrite H1, Hd, H3. reflexivity.
  Qed.
  Lemma key_g_dotted k : key_g k = true ->
    oraw_g (d_prefix (k_dotted k)) = true /\ oraw_g (d_suffix (k_dotted k)) = true.
  Proof. unfold key_g, decor_g. intro H. apply andb3 in H as (_ & _ & H). apply andb_true_iff in H. exact H. Qed.
  Lemma key_g_set_dotted_prefix k : key_g k = true -> key_g (set_dotted_prefix k REmpty) = true.
  Proof.
    unfold key_g, set_dotted_prefix; cbn [k_repr k_leaf k_dotted]. intros H. apply andb3 in H as (H1 & H2 & H3).
    rewrite H1, H2. unfold decor_g in *; cbn [d_prefix d_suffix oraw_g]. apply andb_true_iff in H3 as [_ H3]. rewrite H3. reflexivity.
  Qed.
  Lemma key_g_set_dotted_suffix k : key_g k = true -> key_g (set_dotted_suffix k REmpty) = true.
  Proof.
    unfold key_g, set_dotted_suffix; cbn [k_repr k_leaf k_dotted]. intros H. apply andb3 in H as (H1 & H2 & H3).
    rewrite H1, H2. unfold decor_g in *; cbn [d_prefix d_suffix oraw_g]. apply andb_true_iff in H3 as [H3 _]. rewrite H3. reflexivity.
  Qed.
  Lemma fix_key_path_g path p : keys_g path = true -> fix_key_path path = Some p -> keys_g p = true.
  Proof.
    unfold fix_key_path. destruct path as [|first tl]; [discriminate|]. intros H E.
    cbn [keys_g forallb] in H. apply andb_true_iff in H as [Hf Ht].
    set (leaf_pre := match d_prefix (k_dotted first) with Some p0 => p0 | None => REmpty end) in *.
    set (first' := match d_prefix (k_dotted first) with Some _ => set_dotted_prefix first REmpty | None => first end) in *.
    assert (Hlp : raw_g leaf_pre = true).
    { subst leaf_pre. destruct (key_g_dotted _ Hf) as [H1 _]. destruct (d_prefix (k_dotted first)); [exact H1|reflexivity]. }
    assert (Hf' : key_g first' = true).
    { subst first'. destruct (d_prefix (k_dotted first)); [apply key_g_set_dotted_prefix|]; exact Hf. }
    assert (Hall : keys_g (rev (first' :: tl)) = true).
    { rewrite keys_g_rev. cbn [keys_g forallb]. rewrite Hf'. exact Ht. }
    destruct (rev (first' :: tl)) as [|last rinit]; [discriminate|]. inversion E; subst p. clear E.
    cbn [keys_g forallb] in Hall. apply andb_true_iff in Hall as [Hl Hr].
    unfold keys_g. cbn [rev]. rewrite forallb_app, forallb_rev. unfold keys_g in Hr. rewrite Hr. cbn [forallb andb]. rewrite andb_true_r.
    apply key_g_set_leaf.
    - destruct (d_suffix (k_dotted last)); [apply key_g_set_dotted_suffix|]; exact Hl.
    - apply decor_g_new; [exact Hlp|]. destruct (key_g_dotted _ Hl) as [_ H2].
      destruct (d_suffix (k_dotted last)); [exact H2|reflexivity].
  Qed.

  (* ---- descend_path / the state machine ----------------------------------------------------------------------------------- *)
  Lemma wta_g {X} (Q : X -> Prop) : forall path t dotted (f : tbl -> cres (tbl * X)) t' x,
    tbl_g t = true -> keys_g path = true ->
    (forall p, tbl_g p = true -> cres_post (fun p' x => tbl_g p' = true /\ Q x) (f p)) ->
    with_table_at t path dotted f = COk (t', x) -> tbl_g t' = true /\ Q x.
  Proof.
    intros path t0 dotted f t' x0 Ht0 Hp Hf W.
    assert (Y : cres_post (fun t' x => tbl_g t' = true /\ Q x) (with_table_at t0 path dotted f)); [|rewrite W in Y; exact Y].
    apply (wta_post dotted (fun t => tbl_g t = true) (fun k => key_g k = true) (fun _ t' x => tbl_g t' = true /\ Q x));
      [| | |exact Ht0|apply forallb_Forall, Hp|exact Hf].
    - intros t k Ht Hk _. split; [reflexivity|]. intros sub' x [Hs Hq]. split; [|exact Hq].
      apply tbl_g_push_entry; [exact Ht|exact Hk|exact Hs].
    - intros t k k0 sub Ht Gt. pose proof (tbl_g_get _ _ _ _ Ht Gt) as Hit. split; [exact Hit|].
      intros sub' x [Hs Hq]. split; [|exact Hq]. apply tbl_g_set_entry; [exact Ht|exact Hs].
    - intros t k k0 ts asp last rinit Ht Gt Rv. pose proof (tbl_g_get _ _ _ _ Ht Gt) as Hit.
      rewrite item_g_aot in Hit. apply andb_true_iff in Hit as [Hts Hsp].
      rewrite <- forallb_rev, Rv in Hts. cbn [forallb] in Hts. apply andb_true_iff in Hts as [Hl Hr]. split; [exact Hl|].
      intros last' x [Hs Hq]. split; [|exact Hq]. apply tbl_g_set_entry; [exact Ht|].
      rewrite item_g_aot, forallb_rev. cbn [forallb]. rewrite Hs, Hr, Hsp. reflexivity.
  Qed.

  Definition st_g (st : pstate) : Prop :=
    tbl_g (st_root st) = true /\ tbl_g (st_current st) = true /\ osp_g (st_trailing st) = true /\ keys_g (st_path st) = true.

  Lemma st_g_new : G 0%N = true -> st_g state_new.
  Proof. intro H. unfold st_g. cbn. unfold sp_g; cbn. rewrite H. auto. Qed.
  Lemma st_g_on_ws st sp : st_g st -> sp_g sp = true -> st_g (on_ws st sp).
  Proof.
    intros (H1 & H2 & H3 & H4) Hs. unfold st_g, on_ws; cbn [st_root st_current st_trailing st_path]. repeat split; auto.
    destruct (st_trailing st) as [old|]; cbn [osp_g] in *; [|exact Hs]. apply sp_g_pair; [apply sp_g_fst, H3|apply sp_g_snd, Hs].
  Qed.

  Lemma key_g_leaf_prefix k r : key_g k = true -> d_prefix (k_leaf k) = Some r -> raw_g r = true.
  Proof.
    unfold key_g, decor_g. intros H E. apply andb3 in H as (_ & H & _). apply andb_true_iff in H as [H _]. rewrite E in H. exact H.
  Qed.
  Lemma key_g_leaf_suffix k : key_g k = true -> oraw_g (d_suffix (k_leaf k)) = true.
  Proof. unfold key_g, decor_g. intros H. apply andb3 in H as (_ & H & _). apply andb_true_iff in H as [_ H]. exact H. Qed.

  Lemma kv_key_g st k : osp_g (st_trailing st) = true -> key_g k = true -> key_g (kv_key st k) = true.
  Proof.
    intros Ht Hk. unfold kv_key, kv_prefix.
    set (kpre := match d_prefix (k_leaf k) with Some r => raw_span r | None => None end).
    assert (Hkpre : osp_g kpre = true).
    { subst kpre. destruct (d_prefix (k_leaf k)) as [r|] eqn:D; [|reflexivity]. apply (key_g_leaf_prefix _ _ Hk D). }
    apply key_g_set_leaf; [exact Hk|]. unfold decor_g; cbn [d_prefix d_suffix oraw_g].
    apply andb_true_iff. split; [|apply key_g_leaf_suffix, Hk].
    destruct (st_trailing st) as [p0|], kpre as [kk|]; cbn [osp_g] in *;
      [apply raw_with_span_g, sp_g_pair; [apply sp_g_fst, Ht|apply sp_g_snd, Hkpre]
      |apply raw_with_span_g, Ht|apply raw_with_span_g, Hkpre|reflexivity].
  Qed.
  Lemma kv_cur_g st v : tbl_g (st_current st) = true -> item_g v = true -> tbl_g (kv_cur st v) = true.
  Proof.
    intros Hc Hv. unfold kv_cur. destruct (t_span (st_current st)) as [e0|] eqn:S; [|exact Hc].
    destruct (item_span v) as [vs|] eqn:V; [|exact Hc]. apply tbl_g_set_span; [exact Hc|]. cbn [osp_g]. apply sp_g_pair.
    - apply sp_g_fst. pose proof (tbl_g_span _ Hc) as X. rewrite S in X. exact X.
    - apply sp_g_snd. eapply item_span_g; eauto.
  Qed.
  Lemma f_keyval_g k v pe p : key_g k = true -> item_g v = true -> tbl_g p = true ->
    cres_post (fun p' (_ : unit) => tbl_g p' = true /\ True) (f_keyval k v pe p).
  Proof.
    intros Hk Hv Hp. unfold f_keyval. destruct (Bool.eqb _ _); [exact I|]. destruct (kv_get _ _); [exact I|].
    cbn [cres_post]. split; [|exact I]. apply tbl_g_push_entry; assumption.
  Qed.

  Lemma on_keyval_g st path k v st' :
    st_g st -> keys_g path = true -> key_g k = true -> item_g v = true -> on_keyval st path k v = COk st' -> st_g st'.
  Proof.
    intros (Hr & Hc & Ht & Hp) Hpath Hk Hv E. apply on_keyval_inv in E as (cur' & W & ->).
    apply (wta_g (fun _ => True)) in W as [W _];
      [|exact (kv_cur_g st v Hc Hv)|exact Hpath|intros p Hp0; exact (f_keyval_g _ v _ p (kv_key_g st k Ht Hk) Hv Hp0)].
    unfold st_g; cbn [st_root st_current st_trailing st_path]. auto.
  Qed.

  Lemma set_dotted_spans_g : forall path t ve,
    tbl_g t = true -> keys_g path = true -> (forall e, ve = Some e -> G e = true) ->
    tbl_g (set_dotted_spans t path ve) = true.
  Proof.
    induction path as [|k ptl IH]; intros t ve Ht Hp Hve; cbn [set_dotted_spans]; [auto|].
    cbn [keys_g forallb] in Hp. apply andb_true_iff in Hp as [Hk Hptl].
    destruct (kv_get (t_items t) (k_key k)) as [[k' it]|] eqn:Gt; [|auto].
    pose proof (tbl_g_get _ _ _ _ Ht Gt) as Hit. destruct it as [|v|sub|ts sp]; auto.
    rewrite item_g_table in Hit. apply tbl_g_set_entry; [exact Ht|]. rewrite item_g_table.
    apply IH; auto. destruct (t_dotted sub); [|exact Hit]. destruct (key_span k) as [ks|] eqn:K; [|exact Hit].
    destruct ve as [e|]; [|exact Hit]. apply tbl_g_set_span; [exact Hit|].
    apply widen_g; [apply tbl_g_span, Hit|eapply key_span_g; eauto|apply Hve; reflexivity].
  Qed.

  Lemma on_keyval_sp_g st path k v st' :
    st_g st -> keys_g path = true -> key_g k = true -> item_g v = true -> on_keyval_sp st path k v = COk st' -> st_g st'.
  Proof.
    intros Hst Hpath Hk Hv E. apply on_keyval_sp_inv in E as (st1 & R & ->).
    destruct (on_keyval_g _ _ _ _ _ Hst Hpath Hk Hv R) as (H1 & H2 & H3 & H4).
    unfold st_g; cbn [st_root st_current st_trailing st_path]. repeat split; auto.
    apply set_dotted_spans_g; [exact H2|exact Hpath|]. intros e He. eapply item_end_g; eauto.
  Qed.

  Lemma union_span_g a b : osp_g a = true -> osp_g b = true -> osp_g (union_span a b) = true.
  Proof.
    destruct a, b; cbn [union_span osp_g]; auto. intros H1 H2. apply sp_g_pair; [apply sp_g_fst, H1|apply sp_g_snd, H2].
  Qed.

  Lemma f_fin_g (ia : bool) k cur parent : key_g k = true -> tbl_g cur = true -> tbl_g parent = true ->
    cres_post (fun p' (_ : unit) => tbl_g p' = true /\ True) ((if ia then f_fin_aot else f_fin_std) k cur parent).
  Proof.
    intros Hk Hc Hpar. pose proof (tbl_g_span _ Hc) as Sc. destruct ia.
    - unfold f_fin_aot. destruct (kv_get (t_items parent) (k_key k)) as [[k' it]|] eqn:Gt.
      + pose proof (tbl_g_get _ _ _ _ Hpar Gt) as Hit. destruct it as [|v|t|ts sp]; try exact I. cbv zeta.
        cbn [cres_post]. split; [|exact I]. apply tbl_g_set_entry; [exact Hpar|].
        rewrite item_g_aot in *. apply andb_true_iff in Hit as [Hts _]. rewrite forallb_app. cbn [forallb]. rewrite Hts, Hc. cbn [andb].
        destruct ts as [|first tl]; cbn [app]; apply union_span_g; auto.
        cbn [forallb] in Hts. apply andb_true_iff in Hts as [Hf _]. apply tbl_g_span, Hf.
      + cbn [cres_post]. split; [|exact I]. apply tbl_g_push_entry; [exact Hpar|exact Hk|].
        rewrite item_g_aot. cbn [forallb]. rewrite Hc. cbn [andb]. apply union_span_g; exact Sc.
    - unfold f_fin_std. destruct (kv_get (t_items parent) (k_key k)) as [[k' it]|].
      + destruct it as [|v|t|ts sp]; try exact I. destruct (t_implicit t); [|exact I]. cbn [cres_post]. split; [|exact I].
        apply tbl_g_set_entry; assumption.
      + cbn [cres_post]. split; [|exact I]. apply tbl_g_push_entry; assumption.
  Qed.

  Lemma finalize_g st st' :
    st_g st -> finalize_table st = COk st' ->
    tbl_g (st_root st') = true /\ st_trailing st' = st_trailing st /\ st_current st' = tbl_new /\ st_path st' = [].
  Proof.
    intros (Hr & Hc & Ht & Hp) E. apply finalize_inv in E as (root' & -> & W). cbn [finalized st_root st_trailing st_current st_path].
    repeat split.
    destruct (pop_key (st_path st)) as [[ppath k]|] eqn:P; [|destruct W as [_ ->]; exact Hc].
    destruct (pop_key_g _ _ _ Hp P) as [Hpp Hk].
    apply (wta_g (fun _ => True)) in W as [W _]; [exact W|exact Hr|exact Hpp|].
    intros parent Hpar. apply f_fin_g; assumption.
  Qed.

  Lemma f_start_aot_g k parent : key_g k = true -> tbl_g parent = true ->
    cres_post (fun p' (_ : unit) => tbl_g p' = true /\ True) (f_start_aot k parent).
  Proof.
    intros Hk Hpar. unfold f_start_aot. destruct (kv_get (t_items parent) (k_key k)) as [[k' it]|].
    - destruct it; try exact I. cbn [cres_post]. auto.
    - cbn [cres_post]. split; [|exact I]. apply tbl_g_push_entry; [exact Hpar|exact Hk|reflexivity].
  Qed.
  Lemma f_start_std_g k parent : tbl_g parent = true ->
    cres_post (fun p' x => tbl_g p' = true /\ match x with Some t => tbl_g t = true | None => True end) (f_start_std k parent).
  Proof.
    intros Hpar. unfold f_start_std. destruct (kv_get (t_items parent) (k_key k)) as [[k' it]|] eqn:Gt; [|cbn [cres_post]; auto].
    pose proof (tbl_g_get _ _ _ _ Hpar Gt) as Hit.
    destruct it as [|v|t|ts sp0]; try exact I. destruct (t_implicit t && negb (t_dotted t)); [|exact I].
    cbn [cres_post]. split; [|exact Hit]. apply tbl_g_set_items; [exact Hpar|]. apply items_g_remove, tbl_g_get_items, Hpar.
  Qed.

  Lemma start_g (ia : bool) st path dec sp st' :
    tbl_g (st_root st) = true -> st_current st = tbl_new -> keys_g path = true -> decor_g dec = true -> sp_g sp = true ->
    (if ia then start_array_table st path dec sp else start_table st path dec sp) = COk st' ->
    st_trailing st = None -> st_g st'.
  Proof.
    intros Hr Hc Hpath Hdec Hsp E Htr. unfold st_g. destruct ia.
    - apply start_array_table_inv in E as (_ & _ & ppath & k & root' & P & W & ->). destruct (pop_key_g _ _ _ Hpath P) as [Hpp Hk].
      apply (wta_g (fun _ => True)) in W as [W _]; [|exact Hr|exact Hpp|intros parent; apply f_start_aot_g, Hk].
      unfold open_table. cbn [st_current st_root st_trailing st_path]. rewrite Hc, Htr. cbn [t_items tbl_new]. repeat split; auto.
      rewrite tbl_g_items. cbn [t_items t_decor t_span items_g forallb osp_g]. rewrite Hdec, Hsp. reflexivity.
    - apply start_table_inv in E as (_ & _ & ppath & k & root' & tk & P & W & ->). destruct (pop_key_g _ _ _ Hpath P) as [Hpp Hk].
      apply (wta_g (fun x => match x with Some t => tbl_g t = true | None => True end)) in W as [W Wt];
        [|exact Hr|exact Hpp|apply f_start_std_g].
      unfold open_table. cbn [st_current st_root st_trailing st_path]. rewrite Htr. repeat split; auto.
      rewrite tbl_g_items. cbn [t_items t_decor t_span osp_g]. rewrite Hdec, Hsp, !andb_true_r.
      destruct tk as [t|]; [apply tbl_g_get_items, Wt|rewrite Hc; reflexivity].
  Qed.

  Lemma on_header_g (ia : bool) st path trailing sp st' :
    st_g st -> keys_g path = true -> sp_g trailing = true -> sp_g sp = true ->
    on_header ia st path trailing sp = COk st' -> st_g st'.
  Proof.
    intros Hst Hpath Htrail Hsp E. unfold on_header in E. destruct path as [|k0 ptl] eqn:Ep; [discriminate|]. rewrite <- Ep in *.
    destruct (finalize_table st) as [st1| |] eqn:F; try discriminate E.
    destruct (finalize_g _ _ Hst F) as (Hr & Htr & Hc & Hp). unfold take_trailing in E.
    destruct Hst as (_ & _ & Ht & _).
    eapply (start_g ia); [| | | | |exact E|]; cbn [st_root st_current st_trailing]; auto.
    apply decor_g_new; [|apply raw_with_span_g, Htrail].
    rewrite Htr. destruct (st_trailing st) as [sp0|]; [apply raw_with_span_g, Ht|reflexivity].
  Qed.
End G.
