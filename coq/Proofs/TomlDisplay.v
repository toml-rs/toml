(* Proofs/TomlDisplay.v — C06 for toml::Table / toml::Value Display: the document tree Model/TomlDisplay.v builds
   (tv_doc) lies inside the constructed trees of Model/Build.v (tables marked implicit included), so its printed
   text parses back (Proofs/BuiltRTDoc.v); what comes back is the value, its maps listed in the printed order. *)
From TV Require Import Base.Prelude Gen.Consts.
From TV Require Import Model.Tree Model.Parse Model.Document Model.Encode Model.Build.
From TV Require Import Model.TomlDisplay.
From TV Require Import Proofs.BuiltRTValue Proofs.BuiltRTTop Proofs.BuiltRTDocEncode Proofs.BuiltRTDoc.
From Coq Require Import Permutation.
Require Import Lia.
From TV Require Import Base.ListFacts.

(* ---- induction over values ----------------------------------------------------------------------------------- *)
Lemma tvc_strong (P : tvc -> Prop) :
  (forall s, P (TvLeaf s)) ->
  (forall l, Forall P l -> P (TvArr l)) ->
  (forall m, Forall (fun kv => P (snd kv)) m -> P (TvTab m)) ->
  forall v, P v.
Proof.
  intros H1 H2 H3. fix IH 1. intros [s|l|m].
  - apply H1.
  - apply H2. induction l as [|x l IHl]; constructor; [apply IH|exact IHl].
  - apply H3. induction m as [|[k x] m IHm]; constructor; [apply IH|exact IHm].
Qed.

(* ---- the three loops list every entry exactly once -------------------------------------------------------------- *)
Lemma pass_exclusive v :
  (c_pass1 v = true /\ c_pass2 v = false /\ c_pass3 v = false) \/
  (c_pass1 v = false /\ c_pass2 v = true /\ c_pass3 v = false) \/
  (c_pass1 v = false /\ c_pass2 v = false /\ c_pass3 v = true).
Proof.
  destruct v as [s|l|m]; unfold c_pass1, c_pass2, c_pass3, c_any_table; cbn [tvc_is_table tvc_is_array negb andb orb].
  - left. auto.
  - destruct (existsb tvc_is_table l); cbn; [right; left|left]; auto.
  - right. right. auto.
Qed.

Lemma three_pass_perm {A} (f : A -> tvc) (l : list A) :
  Permutation (filter (fun e => c_pass1 (f e)) l ++ filter (fun e => c_pass2 (f e)) l ++ filter (fun e => c_pass3 (f e)) l) l.
Proof.
  induction l as [|x l IH]; [constructor|]. cbn [filter].
  destruct (pass_exclusive (f x)) as [(-> & -> & ->) | [(-> & -> & ->) | (-> & -> & ->)]].
  - cbn [app]. constructor. exact IH.
  - eapply Permutation_trans; [|apply perm_skip, IH]. symmetry. apply Permutation_middle.
  - eapply Permutation_trans; [|apply perm_skip, IH].
    rewrite app_assoc. symmetry. rewrite app_assoc. apply Permutation_middle.
Qed.

Lemma in_order_perm {A} three (ent : list (bytes * tvc * A)) :
  Permutation (in_order three ent) (map (fun e => (fst (fst e), snd e)) ent).
Proof.
  unfold in_order. destruct three.
  - rewrite <- !map_app. apply Permutation_map. apply (three_pass_perm (fun e => snd (fst e))).
  - assert (E : filter (fun _ : bytes * tvc * A => true) ent = ent) by (induction ent as [|x l IH]; [reflexivity|cbn; rewrite IH; reflexivity]).
    rewrite E. apply Permutation_refl.
Qed.

Lemma perm_forall {A} (P : A -> Prop) l l' : Permutation l l' -> Forall P l -> Forall P l'.
Proof. intros Hp H. rewrite Forall_forall in *. intros x Hx. apply H. apply (Permutation_in _ (Permutation_sym Hp) Hx). Qed.

(* ---- well-formed values ---------------------------------------------------------------------------------------- *)
(* distinct UTF-8 keys in every map (invariants of toml::Map<String, _>); leaves: UTF-8 strings, i64, floats nan / inf /
   the decimal of their text below the overflow threshold, in-range date-times *)
Inductive wf_tvc : tvc -> Prop :=
| WfLeaf s : scalar_ok (ser_scalar s) -> wf_tvc (TvLeaf s)
| WfArr l : Forall wf_tvc l -> wf_tvc (TvArr l)
| WfTab m : NoDup (map fst m) -> Forall key_ok (map fst m) -> Forall wf_tvc (map snd m) -> wf_tvc (TvTab m).
Definition wf_entries_tvc (m : list (bytes * tvc)) : Prop := wf_tvc (TvTab m).

Lemma wf_tvc_strong (P : tvc -> Prop) :
  (forall s, scalar_ok (ser_scalar s) -> P (TvLeaf s)) ->
  (forall l, Forall wf_tvc l -> Forall P l -> P (TvArr l)) ->
  (forall m, NoDup (map fst m) -> Forall key_ok (map fst m) -> Forall wf_tvc (map snd m) -> Forall P (map snd m) -> P (TvTab m)) ->
  forall v, wf_tvc v -> P v.
Proof.
  intros H1 H2 H3. fix IH 2. intros v Hv. destruct Hv as [s Hs | l Hl | m Hnd Hk Hm].
  - apply H1, Hs.
  - apply H2; [exact Hl|]. induction Hl; constructor; [apply IH; assumption|assumption].
  - apply H3; try assumption. induction Hm; constructor; [apply IH; assumption|assumption].
Qed.

(* ---- unfolding the serializer ------------------------------------------------------------------------------------ *)
Definition vents (m : list (bytes * tvc)) : list (bytes * tvc * value) := map (fun kv => (fst kv, snd kv, tv_value (snd kv))) m.
Definition ients (m : list (bytes * tvc)) : list (bytes * tvc * item) := map (fun kv => (fst kv, snd kv, tv_item (snd kv))) m.

Lemma tv_value_tab m :
  tv_value (TvTab m) = VInline (mk_inline_items (in_order true (vents m))) REmpty false false decor_default None.
Proof.
  cbn [tv_value]. do 3 f_equal. unfold vents. induction m as [|[k x] m IH]; [reflexivity|]. cbn [map fst snd]. rewrite IH. reflexivity.
Qed.
Lemma tv_item_tab m : tv_item (TvTab m) = ITable (doc_tbl (nonempty_b m) (in_order true (ients m))).
Proof.
  cbn [tv_item]. do 3 f_equal. unfold ients. induction m as [|[k x] m IH]; [reflexivity|]. cbn [map fst snd]. rewrite IH. reflexivity.
Qed.
Definition tab_of (v : tvc) : bool * list (bytes * item) :=
  match v with TvTab m => (nonempty_b m, in_order true (ients m)) | _ => (false, []) end.
Lemma tv_item_aot l : c_aot_able l = true ->
  tv_item (TvArr l) = IAot (map (fun x => Tbl (mk_tbl_items (snd x)) decor_default (fst x) false None None) (map tab_of l)) None.
Proof.
  intro H. cbn [tv_item]. rewrite H. f_equal.
  assert (Hall : forallb tvc_is_table l = true) by (destruct l; [discriminate|exact H]). clear H.
  induction l as [|x l IH]; [reflexivity|]. cbn [forallb] in Hall. apply andb_true_iff in Hall as [Hx Hl].
  destruct x as [s|l0|m]; try discriminate. rewrite tv_item_tab. cbn [map tab_of fst snd]. rewrite (IH Hl). reflexivity.
Qed.
Lemma tv_item_line v : c_is_line v = true -> tv_item v = IValue (tv_value v).
Proof. destruct v as [s|l|m]; cbn [c_is_line tv_item]; [reflexivity| |discriminate]. intro H. apply negb_true_iff in H. rewrite H. reflexivity. Qed.

(* ---- values ---------------------------------------------------------------------------------------------------------- *)
Lemma default_decor_built : decor_built decor_default.
Proof. split; left; reflexivity. Qed.

Lemma in_order_keys {A} three (ent : list (bytes * tvc * A)) :
  Permutation (map fst (in_order three ent)) (map (fun e => fst (fst e)) ent).
Proof.
  replace (map (fun e : bytes * tvc * A => fst (fst e)) ent) with (map fst (map (fun e : bytes * tvc * A => (fst (fst e), snd e)) ent))
    by (rewrite map_map; reflexivity).
  apply Permutation_map, in_order_perm.
Qed.
Lemma in_order_vals {A} three (ent : list (bytes * tvc * A)) :
  Permutation (map snd (in_order three ent)) (map snd ent).
Proof.
  replace (map snd ent) with (map snd (map (fun e : bytes * tvc * A => (fst (fst e), snd e)) ent))
    by (rewrite map_map; reflexivity).
  apply Permutation_map, in_order_perm.
Qed.

Theorem tv_value_built : forall v, wf_tvc v ->
  BuiltValue scalar_ok key_ok (tv_value v) /\ value_decor (tv_value v) = decor_default.
Proof.
  apply wf_tvc_strong.
  - intros s Hs. split; [|reflexivity]. constructor; [exact Hs|apply default_decor_built].
  - intros l _ IH. split; [|reflexivity]. cbn [tv_value]. unfold array_from_iter. constructor; [apply default_decor_built|].
    apply Forall_forall. intros x Hx. apply in_map_iff in Hx as (v & <- & Hv). rewrite Forall_forall in IH. apply IH, Hv.
  - intros m Hnd Hk _ IH. split; [|rewrite tv_value_tab; reflexivity]. rewrite tv_value_tab. constructor.
    + apply default_decor_built.
    + apply (Permutation_NoDup (Permutation_sym (in_order_keys true (vents m)))). unfold vents. rewrite map_map. exact Hnd.
    + apply (perm_forall _ _ _ (Permutation_sym (in_order_keys true (vents m)))). unfold vents. rewrite map_map. exact Hk.
    + apply (perm_forall _ _ _ (Permutation_sym (in_order_vals true (vents m)))). unfold vents. rewrite map_map.
      apply Forall_forall. intros x Hx. apply in_map_iff in Hx as (kv & <- & Hkv). rewrite Forall_forall in IH.
      apply (IH (snd kv)). apply in_map, Hkv.
Qed.

(* ---- tables, arrays of tables, the document ------------------------------------------------------------------------- *)
Lemma doc_tbl_the b l : doc_tbl b l = the_tbl b l None.
Proof. reflexivity. Qed.

Lemma existsb_all_true {A} (f : A -> bool) l : l <> [] -> Forall (fun x => f x = true) l -> existsb f l = true.
Proof. intros Hne H. destruct H as [|x l Hx _]; [contradiction|]. cbn [existsb]. rewrite Hx. reflexivity. Qed.

Lemma perm_nonempty {A} (l l' : list A) : Permutation l l' -> l' <> [] -> l <> [].
Proof. intros Hp Hne E. subst. apply Permutation_nil in Hp. contradiction. Qed.

(* what is shown of a table value: its entries as the serializer orders them *)
Definition entries_good (three : bool) (m : list (bytes * tvc)) : Prop :=
  BuiltEntries scalar_ok key_ok (in_order three (ients m)) /\
  Forall (fun kv => item_prints (snd kv) = true) (in_order three (ients m)).

Lemma entries_good_of three m :
  NoDup (map fst m) -> Forall key_ok (map fst m) ->
  Forall (fun kv => BuiltItem scalar_ok key_ok (tv_item (snd kv)) /\ item_prints (tv_item (snd kv)) = true) m ->
  entries_good three m.
Proof.
  intros Hnd Hk H. split.
  - constructor.
    + apply (Permutation_NoDup (Permutation_sym (in_order_keys three (ients m)))). unfold ients. rewrite map_map. exact Hnd.
    + apply (perm_forall _ _ _ (Permutation_sym (in_order_keys three (ients m)))). unfold ients. rewrite map_map. exact Hk.
    + apply (perm_forall _ _ _ (Permutation_sym (in_order_vals three (ients m)))). unfold ients. rewrite map_map.
      apply Forall_forall. intros x Hx. apply in_map_iff in Hx as (kv & <- & Hkv). rewrite Forall_forall in H. apply (H kv Hkv).
  - apply (perm_forall _ _ _ (Permutation_sym (in_order_perm three (ients m)))). unfold ients. rewrite map_map. cbn [snd].
    apply Forall_forall. intros x Hx. apply in_map_iff in Hx as (kv & <- & Hkv). rewrite Forall_forall in H. apply (H kv Hkv).
Qed.

Lemma in_order_nonempty {A} three (ent : list (bytes * tvc * A)) : ent <> [] -> in_order three ent <> [].
Proof.
  intro H. apply (perm_nonempty _ _ (in_order_perm three ent)). destruct ent; [contradiction|discriminate].
Qed.

Definition item_good (v : tvc) : Prop :=
  BuiltItem scalar_ok key_ok (tv_item v) /\ item_prints (tv_item v) = true /\
  forall m, v = TvTab m -> entries_good true m.

Lemma table_item_built b (m : list (bytes * tvc)) :
  entries_good true m -> b = nonempty_b m ->
  BuiltItem scalar_ok key_ok (ITable (doc_tbl b (in_order true (ients m)))) /\
  item_prints (ITable (doc_tbl b (in_order true (ients m)))) = true.
Proof.
  intros [HE Hpr] ->.
  assert (Hex : nonempty_b m = true -> existsb (fun kv => item_prints (snd kv)) (in_order true (ients m)) = true).
  { intro Hne. apply existsb_all_true; [|exact Hpr]. apply in_order_nonempty. destruct m; [discriminate|discriminate]. }
  split; [apply (BI_table scalar_ok key_ok (nonempty_b m) _ HE Hex)|].
  cbn [item_prints]. rewrite doc_tbl_the, tbl_prints_the. cbn [t_implicit the_tbl].
  destruct (nonempty_b m) eqn:E; [rewrite (Hex eq_refl); reflexivity|reflexivity].
Qed.

Theorem tv_item_good : forall v, wf_tvc v -> item_good v.
Proof.
  apply wf_tvc_strong.
  - intros s Hs. split; [|split; [reflexivity|discriminate]]. cbn [tv_item]. constructor.
    apply (tv_value_built (TvLeaf s) (WfLeaf s Hs)).
  - intros l Hl IH. split; [|split; [|discriminate]].
    + destruct (c_aot_able l) eqn:Ea.
      * rewrite (tv_item_aot l Ea). constructor. apply Forall_forall. intros x Hx. apply in_map_iff in Hx as (v & <- & Hv).
        assert (Hall : forallb tvc_is_table l = true) by (destruct l; [discriminate|exact Ea]).
        rewrite forallb_forall in Hall. specialize (Hall v Hv). destruct v as [s|l0|m]; try discriminate.
        cbn [tab_of snd]. rewrite Forall_forall in IH. destruct (IH _ Hv) as (_ & _ & Hm). apply (Hm m eq_refl).
      * cbn [tv_item]. rewrite Ea. constructor. apply (tv_value_built (TvArr l) (WfArr l Hl)).
    + destruct (c_aot_able l) eqn:Ea.
      * rewrite (tv_item_aot l Ea). destruct l; [discriminate|reflexivity].
      * cbn [tv_item]. rewrite Ea. reflexivity.
  - intros m Hnd Hk _ IH.
    assert (Hg : entries_good true m).
    { apply entries_good_of; [exact Hnd|exact Hk|]. apply Forall_forall. intros kv Hkv. rewrite Forall_forall in IH.
      destruct (IH (snd kv) (in_map snd _ _ Hkv)) as (H1 & H2 & _). auto. }
    unfold item_good. rewrite tv_item_tab. destruct (table_item_built _ m Hg eq_refl) as [H1 H2].
    split; [exact H1|]. split; [exact H2|]. intros m' E. injection E as <-. exact Hg.
Qed.

Theorem tv_doc_built three m : wf_tvc (TvTab m) -> BuiltTbl scalar_ok key_ok (tv_doc three m).
Proof.
  intro H. inversion H as [| |m' Hnd Hk Hm]; subst.
  exists (in_order three (ients m)), (nonempty_b m), None. split; [|split; [left; reflexivity|reflexivity]].
  apply entries_good_of; [exact Hnd|exact Hk|]. apply Forall_forall. intros kv Hkv. rewrite Forall_forall in Hm.
  destruct (tv_item_good (snd kv) (Hm _ (in_map snd _ _ Hkv))) as (H1 & H2 & _). auto.
Qed.

(* ---- nesting ------------------------------------------------------------------------------------------------------------ *)

Lemma value_depth_tv : forall v, value_depth (tv_value v) <= tvc_depth v.
Proof.
  apply tvc_strong.
  - intro s. cbn. lia.
  - intros l IH. cbn [tv_value tvc_depth]. unfold array_from_iter. cbn [value_depth]. apply le_n_S.
    rewrite Forall_forall in IH. induction l as [|x l IHl]; [cbn; lia|]. cbn [map fold_right].
    pose proof (IH x (or_introl eq_refl)). specialize (IHl (fun y Hy => IH y (or_intror Hy))). lia.
  - intros m IH. rewrite tv_value_tab. cbn [value_depth tvc_depth]. apply le_n_S.
    set (B := fold_right (fun kv acc => Nat.max (tvc_depth (snd kv)) acc) 0 m).
    assert (Hall : forall kv, In kv (in_order true (vents m)) -> value_depth (snd kv) <= B).
    { intros kv Hkv. apply (Permutation_in _ (in_order_perm true (vents m))) in Hkv. unfold vents in Hkv. rewrite map_map in Hkv.
      apply in_map_iff in Hkv as (kv0 & <- & Hkv0). cbn [snd]. rewrite Forall_forall in IH. specialize (IH kv0 Hkv0).
      pose proof (fold_max_ge (fun kv : bytes * tvc => tvc_depth (snd kv)) m kv0 Hkv0). unfold B. lia. }
    unfold mk_inline_items. induction (in_order true (vents m)) as [|kv E IHE]; [cbn; lia|]. cbn [map fold_right fst snd].
    pose proof (Hall kv (or_introl eq_refl)). specialize (IHE (fun y Hy => Hall y (or_intror Hy))). lia.
Qed.

Lemma in_order_ients_in three m kv : In kv (in_order three (ients m)) -> exists x, In (fst kv, x) m /\ snd kv = tv_item x.
Proof.
  intro H. apply (Permutation_in _ (in_order_perm three (ients m))) in H. unfold ients in H. rewrite map_map in H.
  apply in_map_iff in H as ([k x] & <- & Hin). cbn [fst snd]. eauto.
Qed.

Lemma item_depths_tv : forall v, item_hdepth (tv_item v) <= tvc_depth v /\ item_vdepth (tv_item v) <= tvc_depth v.
Proof.
  apply tvc_strong.
  - intro s. cbn. lia.
  - intros l IH. destruct (c_aot_able l) eqn:Ea.
    + rewrite (tv_item_aot l Ea). cbn [item_hdepth item_vdepth tvc_depth].
      assert (Hall : forallb tvc_is_table l = true) by (destruct l; [discriminate|exact Ea]).
      rewrite forallb_forall in Hall. rewrite Forall_forall in IH.
      set (B := fold_right (fun x acc => Nat.max (tvc_depth x) acc) 0 l).
      set (ts := map (fun x : bool * list (bytes * item) => Tbl (mk_tbl_items (snd x)) decor_default (fst x) false None None) (map tab_of l)).
      assert (G : forall t, In t ts -> tbl_hdepth t <= B /\ tbl_vdepth t <= B).
      { intros t Ht. unfold ts in Ht. rewrite map_map in Ht. apply in_map_iff in Ht as (x & <- & Hx).
        specialize (Hall x Hx). destruct x as [s|l0|m]; try discriminate.
        destruct (IH _ Hx) as [H1 H2]. rewrite tv_item_tab in H1, H2. cbn [item_hdepth item_vdepth] in H1, H2. cbn [tab_of fst snd].
        pose proof (fold_max_ge tvc_depth l (TvTab m) Hx) as Hm. fold B in Hm. unfold doc_tbl in *. lia. }
      split.
      * apply le_n_S. apply (fold_max_bound tbl_hdepth). intros t Ht. apply G, Ht.
      * apply Nat.le_le_succ_r. apply (fold_max_bound tbl_vdepth). intros t Ht. apply G, Ht.
    + cbn [tv_item]. rewrite Ea. cbn [item_hdepth item_vdepth]. split; [lia|apply value_depth_tv].
  - intros m IH. rewrite tv_item_tab. cbn [item_hdepth item_vdepth tvc_depth]. rewrite doc_tbl_the, hdepth_the, vdepth_the.
    set (B := fold_right (fun kv acc => Nat.max (tvc_depth (snd kv)) acc) 0 m).
    assert (G : forall kv, In kv (in_order true (ients m)) -> item_hdepth (snd kv) <= B /\ item_vdepth (snd kv) <= B).
    { intros kv Hkv. destruct (in_order_ients_in true m kv Hkv) as (x & Hx & ->).
      rewrite Forall_forall in IH. destruct (IH _ Hx) as [H1 H2]. cbn [snd] in H1, H2.
      pose proof (fold_max_ge (fun kv : bytes * tvc => tvc_depth (snd kv)) m _ Hx) as Hm. cbn [snd] in Hm. fold B in Hm. lia. }
    split.
    + apply le_n_S. apply (fold_max_bound (fun kv : bytes * item => item_hdepth (snd kv))). intros kv Hkv. apply G, Hkv.
    + apply Nat.le_le_succ_r. apply (fold_max_bound (fun kv : bytes * item => item_vdepth (snd kv))). intros kv Hkv. apply G, Hkv.
Qed.

Lemma tv_doc_depths three m :
  tvc_depth (TvTab m) <= LIMIT -> tbl_hdepth (tv_doc three m) < LIMIT /\ tbl_vdepth (tv_doc three m) < LIMIT.
Proof.
  intro H. cbn [tvc_depth] in H. unfold tv_doc. rewrite doc_tbl_the, hdepth_the, vdepth_the.
  set (B := fold_right (fun kv acc => Nat.max (tvc_depth (snd kv)) acc) 0 m) in *.
  assert (G : forall kv, In kv (in_order three (ients m)) -> item_hdepth (snd kv) <= B /\ item_vdepth (snd kv) <= B).
  { intros kv Hkv. destruct (in_order_ients_in three m kv Hkv) as (x & Hx & ->).
    destruct (item_depths_tv x) as [H1 H2].
    pose proof (fold_max_ge (fun kv : bytes * tvc => tvc_depth (snd kv)) m _ Hx) as Hm. cbn [snd] in Hm. fold B in Hm. lia. }
  fold (ients m).
  split.
  - apply Nat.le_lt_trans with B; [|lia]. apply (fold_max_bound (fun kv : bytes * item => item_hdepth (snd kv))). intros kv Hkv. apply G, Hkv.
  - apply Nat.le_lt_trans with B; [|lia]. apply (fold_max_bound (fun kv : bytes * item => item_vdepth (snd kv))). intros kv Hkv. apply G, Hkv.
Qed.

(* ---- C06_toml_display, first form: the printed text parses back to the tree of tv_doc, values before tables --------- *)
Theorem toml_display_parses three m :
  wf_tvc (TvTab m) -> tvc_depth (TvTab m) <= LIMIT ->
  exists d, parse_document (display_document (render_tbl float_text (tv_doc three m)) REmpty) = POk d
            /\ abs_tbl (doc_root d) = printed_entries (abs_tbl (tv_doc three m)).
Proof.
  intros Hwf Hd. destruct (tv_doc_depths three m Hd) as [Hh Hv].
  apply document_roundtrip; [apply tv_doc_built, Hwf|exact Hh|exact Hv].
Qed.
