(* Proofs/SpansNestInline.v — C14, nesting inside inline tables: the tables made of dotted keys
   (`{ a.b = 1, a.c = 2 }`) get spans that cover their keys and values.

   inline_table.rs widens the spans while descending for each pair; the model (Model/Parse.v) inserts all
   pairs first and runs the span bookkeeping afterwards (`inline_spans_pass`).  Here:
     1. one insertion followed by its own bookkeeping keeps the nesting invariant (`ins_sp_nest`);
     2. the bookkeeping of an earlier pair commutes with later insertions (`insert_set_spans_comm`), hence
        the separate pass equals the interleaved computation (`pass_eq_interleaved`);
     3. so the items built by `table_from_pairs` are nested (`table_from_pairs_nest`). *)
From TV Require Import Base.Prelude Base.Winnow.
From TV Require Import Model.Tree Model.Parse.
From TV Require Import Proofs.SpansDefs Proofs.SpansBase Proofs.SpansValue Proofs.SpansNestLex.
From TV Require Import Proofs.KvFacts.
Require Import Lia ZifyBool ZifyN ZifyNat.
From TV Require Import Base.BytesFacts.

Lemma kv_get_bytes m k1 k2 : bytes_eqb k1 k2 = true -> kv_get m k1 = kv_get m k2.
Proof. intro E. apply bytes_eqb_eq in E. subst. reflexivity. Qed.

(* ---- the nesting invariant on items ------------------------------------------------------------------------ *)
Definition Inest (m : kvs) : bool := forallb (fun kv => inest (snd kv)) m.

Lemma vnest_inline items pre im dt d sp :
  vnest (VInline items pre im dt d sp)
  = match sp with
    | Some (a, b) => if dt then dnest a b items else forallb (kv_in a b) items && raw_in a b pre
    | None => false
    end && (negb im || dt) && Inest items.
Proof. reflexivity. Qed.
Lemma vnest_array vals tr c d sp :
  vnest (VArray vals tr c d sp)
  = match sp with Some (a, b) => forallb (item_in a b) vals && raw_in a b tr | None => false end && forallb inest vals.
Proof. reflexivity. Qed.
Lemma inest_value v : inest (IValue v) = vnest v. Proof. reflexivity. Qed.

Lemma Inest_get m k k' it : Inest m = true -> kv_get m k = Some (k', it) -> inest it = true.
Proof. exact (kv_get_forallb (fun kv => inest (snd kv)) m k k' it). Qed.
Lemma Inest_push m k v : Inest m = true -> inest v = true -> Inest (kv_push m k v) = true.
Proof. exact (kv_push_forallb (fun kv => inest (snd kv)) m k v). Qed.
Lemma Inest_set m k v : Inest m = true -> inest v = true -> Inest (kv_set m k v) = true.
Proof. intros H1 H2. apply kv_set_forallb; [exact H1|]. intros; exact H2. Qed.

Definition dn1 (a b : N) (kv : key * item) : bool := kspan_in a b (fst kv) && osp_in a b (item_span (snd kv)).
Lemma dnest_push a b m k v : dnest a b m = true -> kspan_in a b k = true -> osp_in a b (item_span v) = true ->
  dnest a b (kv_push m k v) = true.
Proof. intros H1 H2 H3. apply (kv_push_forallb (dn1 a b)); [exact H1|]. unfold dn1; cbn [fst snd]. rewrite H2, H3. reflexivity. Qed.
Lemma dnest_set a b m k v : dnest a b m = true -> osp_in a b (item_span v) = true -> dnest a b (kv_set m k v) = true.
Proof.
  intros H1 H2. apply (kv_set_forallb (dn1 a b)); [exact H1|]. unfold dn1; cbn [fst snd]. intros k0 old _ H.
  apply andb_true_iff in H as [H _]. rewrite H, H2. reflexivity.
Qed.
Lemma dnest_get a b m k k' it : dnest a b m = true -> kv_get m k = Some (k', it) -> osp_in a b (item_span it) = true.
Proof. intros H E. apply (kv_get_forallb (dn1 a b) _ _ _ _ H) in E. apply andb_true_iff in E. apply E. Qed.
Lemma dnest_mono a b a' b' m : (a' <= a)%N -> (b <= b')%N -> dnest a b m = true -> dnest a' b' m = true.
Proof.
  intros L U. unfold dnest. apply forallb_Forall_imp. apply Forall_forall. intros kv _ H.
  apply andb_true_iff in H as [H1 H2]. unfold kspan_in in *.
  rewrite (oraw_in_mono a b a' b' L U _ H1), (osp_in_mono a b a' b' L U _ H2). reflexivity.
Qed.

Lemma kspan_of_key_span a b k x y : key_span k = Some (x, y) -> (a <= x)%N -> (x <= y)%N -> (y <= b)%N -> kspan_in a b k = true.
Proof.
  unfold key_span, kspan_in. destruct (k_repr k) as [r|]; [|discriminate]. intros S H1 H2 H3.
  cbn [oraw_in]. unfold raw_in. rewrite S. cbn [osp_in]. apply sp_in_pair; assumption.
Qed.

(* ---- 1. one insertion followed by its own span bookkeeping -------------------------------------------------------- *)
Lemma ins_sp_nest : forall path m dh pe k v m1 c mid av e,
  Inest m = true -> inline_insert m dh path pe k v = COk m1 ->
  kchain c mid (path ++ [k]) -> item_span v = Some (av, e) -> (mid <= av)%N -> (av <= e)%N -> inest v = true ->
  Inest (inline_set_spans m1 path (Some e)) = true
  /\ forall a b, (a <= c)%N -> (e <= b)%N -> dnest a b m = true -> dnest a b (inline_set_spans m1 path (Some e)) = true.
Proof.
  induction path as [|pk ptl IH]; intros m dh pe k v m1 c mid av e Hm E Hch Sv L1 L2 Hv; cbn [inline_insert] in E.
  - destruct (Bool.eqb dh pe); [discriminate|]. destruct (kv_get m (k_key k)); [discriminate|]. inversion E; subst m1.
    cbn [inline_set_spans]. split; [apply Inest_push; assumption|]. intros a b La Ub Hd.
    unfold kchain in Hch. cbn [app map chain] in Hch. destruct Hch as (x & y & Sk & G1 & G2 & G3).
    apply dnest_push; [exact Hd|eapply kspan_of_key_span; [exact Sk|nlia|nlia|nlia]|].
    rewrite Sv. cbn [osp_in]. apply sp_in_pair; nlia.
  - unfold kchain in Hch. cbn [app map chain] in Hch. destruct Hch as (x & y & Sk & G1 & G2 & G3).
    fold (kchain y mid (ptl ++ [k])) in G3. pose proof (chain_le _ _ _ G3) as Gle.
    destruct (kv_get m (k_key pk)) as [[k' it]|] eqn:G.
    + pose proof (Inest_get _ _ _ _ Hm G) as Hit. destruct it as [|val| |]; try discriminate E.
      destruct val as [s r d|vals tr c0 d sp|sub pre imp dt dec sp]; try discriminate E.
      destruct imp; cbn [negb] in E; [|discriminate].
      destruct (inline_insert sub dt ptl pe k v) as [sub1| |] eqn:R; try discriminate E. inversion E; subst m1. clear E.
      rewrite inest_value, vnest_inline in Hit. apply andb3 in Hit as (Hsp & Hdt & Hsub).
      cbn [negb orb] in Hdt. subst dt. destruct sp as [[a0 b0]|]; [|discriminate].
      cbn [inline_set_spans]. rewrite (kv_get_set_same _ _ _ _ _ G). rewrite Sk. unfold widen; cbn [fst snd]. rewrite kv_set_set.
      destruct (IH sub true pe k v sub1 y mid av e Hsub R G3 Sv L1 L2 Hv) as [N1 N2].
      assert (D1 : dnest (N.min a0 x) (N.max b0 e) (inline_set_spans sub1 ptl (Some e)) = true).
      { apply N2; [nlia|nlia|]. eapply dnest_mono; [| |exact Hsp]; nlia. }
      split.
      * apply Inest_set; [exact Hm|]. rewrite inest_value, vnest_inline. rewrite D1, N1. reflexivity.
      * intros a b La Ub Hd. pose proof (dnest_get _ _ _ _ _ _ Hd G) as Ho. cbn [item_span value_span osp_in] in Ho.
        apply dnest_set; [exact Hd|]. cbn [item_span value_span osp_in]. unfold sp_in in *; cbn [fst snd] in *. nlia.
    + destruct (inline_insert [] true ptl pe k v) as [sub1| |] eqn:R; try discriminate E. inversion E; subst m1. clear E.
      cbn [inline_set_spans]. rewrite (kv_get_push_new _ _ _ G). rewrite Sk. unfold widen; cbn [fst snd]. rewrite (kv_set_push_none _ _ _ _ G).
      destruct (IH [] true pe k v sub1 y mid av e eq_refl R G3 Sv L1 L2 Hv) as [N1 N2].
      assert (D1 : dnest x e (inline_set_spans sub1 ptl (Some e)) = true) by (apply N2; [nlia|nlia|reflexivity]).
      split.
      * apply Inest_push; [exact Hm|]. rewrite inest_value, vnest_inline. rewrite D1, N1. reflexivity.
      * intros a b La Ub Hd. apply dnest_push; [exact Hd|eapply kspan_of_key_span; [exact Sk|nlia|nlia|nlia]|].
        cbn [item_span value_span osp_in]. apply sp_in_pair; nlia.
Qed.

(* ---- 2. the bookkeeping of an earlier pair commutes with later insertions ------------------------------------------ *)

(* the path leads through inline tables that exist *)
Fixpoint resolves (m : kvs) (p : list key) : Prop :=
  match p with
  | [] => True
  | kp :: ptl =>
    exists k' sub pre imp dt dec sp,
      kv_get m (k_key kp) = Some (k', IValue (VInline sub pre imp dt dec sp)) /\ resolves sub ptl
  end.

Lemma insert_resolves : forall p m dh pe k v m1, inline_insert m dh p pe k v = COk m1 -> resolves m1 p.
Proof.
  induction p as [|kp ptl IH]; intros m dh pe k v m1 E; cbn [resolves]; [exact I|]. cbn [inline_insert] in E.
  destruct (kv_get m (k_key kp)) as [[k' it]|] eqn:G.
  - destruct it as [|val| |]; try discriminate E.
    destruct val as [s r d|vals tr c0 d sp|sub pre imp dt dec sp]; try discriminate E.
    destruct (negb imp); [discriminate|].
    destruct (inline_insert sub dt ptl pe k v) as [sub1| |] eqn:R; try discriminate E. inversion E; subst m1.
    rewrite (kv_get_set_same _ _ _ _ _ G). do 7 eexists. split; [reflexivity|]. eapply IH, R.
  - destruct (inline_insert [] true ptl pe k v) as [sub1| |] eqn:R; try discriminate E. inversion E; subst m1.
    rewrite (kv_get_push_new _ _ _ G). do 7 eexists. split; [reflexivity|]. eapply IH, R.
Qed.

Lemma set_spans_cons m kp ptl e k' sub pre imp dt dec sp :
  kv_get m (k_key kp) = Some (k', IValue (VInline sub pre imp dt dec sp)) ->
  inline_set_spans m (kp :: ptl) e
  = kv_set m (k_key kp)
      (IValue (VInline (inline_set_spans sub ptl e) pre imp dt dec
                       (if dt then match key_span kp, e with Some ks, Some e0 => widen sp ks e0 | _, _ => sp end else sp))).
Proof. intro G. cbn [inline_set_spans]. rewrite G. reflexivity. Qed.

Lemma insert_set_spans_comm : forall q m dh pe k v m' p e,
  resolves m p -> inline_insert m dh q pe k v = COk m' ->
  inline_insert (inline_set_spans m p e) dh q pe k v = COk (inline_set_spans m' p e) /\ resolves m' p.
Proof.
  induction q as [|qk qtl IH]; intros m dh pe k v m' p e Hres E.
  - cbn [inline_insert] in E. destruct (Bool.eqb dh pe) eqn:B; [discriminate|].
    destruct (kv_get m (k_key k)) eqn:Gk; [discriminate|]. inversion E; subst m'. clear E.
    destruct p as [|kp ptl]; [cbn [inline_set_spans inline_insert resolves]; rewrite B, Gk; auto|].
    cbn [resolves] in Hres. destruct Hres as (k' & sub & pre & imp & dt & dec & sp & G & Hsub).
    rewrite (set_spans_cons _ _ _ _ _ _ _ _ _ _ _ G).
    rewrite (set_spans_cons _ _ _ _ _ _ _ _ _ _ _ (kv_get_push_found _ _ _ _ _ G)).
    cbn [inline_insert]. rewrite B, (kv_get_set_none _ _ _ _ Gk). rewrite (kv_set_push_found _ _ _ _ _ _ G).
    split; [reflexivity|]. cbn [resolves]. rewrite (kv_get_push_found _ _ _ _ _ G). do 7 eexists. split; [reflexivity|exact Hsub].
  - cbn [inline_insert] in E. destruct (kv_get m (k_key qk)) as [[k1 it]|] eqn:Gq.
    + destruct it as [|val| |]; try discriminate E.
      destruct val as [s r d|vals tr c0 d spq0|subq preq impq dtq decq spq]; try discriminate E.
      destruct impq; cbn [negb] in E; [|discriminate].
      destruct (inline_insert subq dtq qtl pe k v) as [subq'| |] eqn:R; try discriminate E. inversion E; subst m'. clear E.
      destruct p as [|kp ptl].
      { cbn [inline_set_spans resolves]. split; [|exact I]. cbn [inline_insert]. rewrite Gq. cbn [negb]. rewrite R. reflexivity. }
      cbn [resolves] in Hres. destruct Hres as (k' & sub & pre & imp & dt & dec & sp & G & Hsub).
      rewrite (set_spans_cons _ _ _ _ _ _ _ _ _ _ _ G).
      destruct (bytes_eqb (k_key kp) (k_key qk)) eqn:Same.
      * apply bytes_eqb_eq in Same. assert (Gq2 := Gq). rewrite <- Same, G in Gq2.
        inversion Gq2; subst k1 subq preq imp dtq decq spq. clear Gq2.
        destruct (IH sub dt pe k v subq' ptl e Hsub R) as [C1 C2].
        cbn [inline_insert]. rewrite <- Same.
        rewrite (set_spans_cons _ _ _ _ _ _ _ _ _ _ _ (kv_get_set_same _ _ _ _ _ G)).
        rewrite (kv_get_set_same _ _ _ _ _ G). cbn [negb]. rewrite C1. rewrite !kv_set_set.
        split; [reflexivity|]. cbn [resolves]. rewrite (kv_get_set_same _ _ _ _ _ G). do 7 eexists. split; [reflexivity|exact C2].
      * assert (Same' : bytes_eqb (k_key qk) (k_key kp) = false) by (rewrite bytes_eqb_sym; exact Same).
        assert (G' : kv_get (kv_set m (k_key qk) (IValue (VInline subq' preq true dtq decq spq))) (k_key kp)
                     = Some (k', IValue (VInline sub pre imp dt dec sp))) by (rewrite (kv_get_set_other _ _ _ _ Same'); exact G).
        rewrite (set_spans_cons _ _ _ _ _ _ _ _ _ _ _ G').
        cbn [inline_insert]. rewrite (kv_get_set_other _ _ _ _ Same), Gq. cbn [negb]. rewrite R.
        rewrite (kv_set_comm _ _ _ _ _ Same). split; [reflexivity|]. cbn [resolves]. rewrite G'. do 7 eexists. split; [reflexivity|exact Hsub].
    + destruct (inline_insert [] true qtl pe k v) as [sub1| |] eqn:R; try discriminate E. inversion E; subst m'. clear E.
      destruct p as [|kp ptl].
      { cbn [inline_set_spans resolves]. split; [|exact I]. cbn [inline_insert]. rewrite Gq, R. reflexivity. }
      cbn [resolves] in Hres. destruct Hres as (k' & sub & pre & imp & dt & dec & sp & G & Hsub).
      rewrite (set_spans_cons _ _ _ _ _ _ _ _ _ _ _ G).
      rewrite (set_spans_cons _ _ _ _ _ _ _ _ _ _ _ (kv_get_push_found _ _ _ _ _ G)).
      cbn [inline_insert]. rewrite (kv_get_set_none _ _ _ _ Gq), R. rewrite (kv_set_push_found _ _ _ _ _ _ G).
      split; [reflexivity|]. cbn [resolves]. rewrite (kv_get_push_found _ _ _ _ _ G). do 7 eexists. split; [reflexivity|exact Hsub].
Qed.

Lemma loop_comm : forall tl m mf p e,
  resolves m p -> table_from_pairs_loop_d m tl = COk mf ->
  table_from_pairs_loop_d (inline_set_spans m p e) tl = COk (inline_set_spans mf p e).
Proof.
  induction tl as [|[path [k v]] tl IH]; intros m mf p e Hres E; cbn [table_from_pairs_loop_d] in *.
  - inversion E; subst. reflexivity.
  - destruct (check_depth _); [discriminate|].
    destruct (inline_insert m false path _ k v) as [m1| |] eqn:R; try discriminate E.
    destruct (insert_set_spans_comm _ _ _ _ _ _ _ p e Hres R) as [C1 C2]. rewrite C1. apply IH; assumption.
Qed.

(* the computation as inline_table.rs performs it: bookkeeping right after each insertion *)
Fixpoint loop_int (m : kvs) (pairs : list (list key * (key * item))) : cres kvs :=
  match pairs with
  | [] => COk m
  | (path, (k, v)) :: tl =>
    if check_depth (length path + 1 + item_depth v) then CErr RecursionLimit
    else
      match inline_insert m false path (match path with [] => true | _ => false end) k v with
      | COk m1 => loop_int (inline_set_spans m1 path (item_end v)) tl
      | e => e
      end
  end.

Lemma pass_eq_interleaved : forall pairs m mf,
  table_from_pairs_loop_d m pairs = COk mf -> loop_int m pairs = COk (inline_spans_pass mf pairs).
Proof.
  induction pairs as [|[path [k v]] tl IH]; intros m mf E; cbn [table_from_pairs_loop_d loop_int] in *.
  - inversion E; subst. reflexivity.
  - destruct (check_depth _); [discriminate|].
    destruct (inline_insert m false path _ k v) as [m1| |] eqn:R; try discriminate E.
    unfold inline_spans_pass. cbn [fold_left]. apply IH. apply loop_comm; [eapply insert_resolves, R|exact E].
Qed.

(* ---- 3. table_from_pairs ---------------------------------------------------------------------------------------------- *)
Definition pair_nest (x : list key * (key * item)) : Prop :=
  exists c mid av e, kchain c mid (fst x ++ [fst (snd x)]) /\ item_span (snd (snd x)) = Some (av, e)
                     /\ (mid <= av)%N /\ (av <= e)%N /\ inest (snd (snd x)) = true.

Lemma loop_int_nest : forall pairs m mf,
  Inest m = true -> Forall pair_nest pairs -> loop_int m pairs = COk mf -> Inest mf = true.
Proof.
  induction pairs as [|[path [k v]] tl IH]; intros m mf Hm Hp E; cbn [loop_int] in E.
  - inversion E; subst. exact Hm.
  - inversion Hp as [|? ? Hx Htl]; subst. destruct Hx as (c & mid & av & e & Hch & Sv & L1 & L2 & Hv). cbn [fst snd] in *.
    destruct (check_depth _); [discriminate|].
    destruct (inline_insert m false path _ k v) as [m1| |] eqn:R; try discriminate E.
    eapply IH; [|exact Htl|exact E]. unfold item_end. rewrite Sv. cbn [snd].
    eapply (ins_sp_nest path m false _ k v m1 c mid av e); eassumption.
Qed.

Lemma table_from_pairs_nest pairs pre v :
  Forall pair_nest pairs -> table_from_pairs pairs pre = TmOk v ->
  exists items, v = VInline items pre false false decor_default None /\ Inest items = true.
Proof.
  intros Hp E. unfold table_from_pairs in E.
  destruct (table_from_pairs_loop_d [] pairs) as [m| |] eqn:R; try discriminate E. inversion E; subst.
  eexists. split; [reflexivity|]. eapply loop_int_nest; [|exact Hp|apply pass_eq_interleaved, R]. reflexivity.
Qed.
