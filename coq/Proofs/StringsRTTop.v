(* Proofs/StringsRTTop.v — every style of TomlStringBuilder / TomlKeyBuilder against `string`,
   `value`, `simple_key`; the default styles exist. *)
From TV Require Import Base.Prelude Base.Utf8 Base.Winnow Gen.Consts.
From TV Require Import Model.Trivia Model.Strings Model.Tree Model.Parse Model.Document Model.Write.
From TV Require Import Proofs.Eoi Proofs.StringsRTDefs Proofs.StringsRTBase Proofs.StringsRTWrite Proofs.StringsRTEsc.
From TV Require Import Proofs.StringsRTBasic Proofs.StringsRTQuotes Proofs.StringsRTMlLit Proofs.StringsRTMlBasic.
Require Import Lia ZifyBool ZifyN ZifyNat.

(* ---- the tokens write_toml_value produces ------------------------------------------------------ *)
Lemma wtv_basic s nl : write_toml_value s (Some BasicString) nl = basic_token s.
Proof.
  unfold write_toml_value, basic_token. rewrite andb_false_r, write_escaped_is_enc. reflexivity.
Qed.
Lemma wtv_ml_basic s nl : write_toml_value s (Some MlBasicString) nl = ml_basic_token nl s.
Proof.
  unfold write_toml_value, ml_basic_token. rewrite andb_true_r, write_escaped_is_enc. reflexivity.
Qed.
Lemma wtv_literal s nl : write_toml_value s (Some LiteralString) nl = literal_token s.
Proof. unfold write_toml_value, literal_token. rewrite andb_false_r. reflexivity. Qed.
Lemma wtv_ml_literal s nl : write_toml_value s (Some MlLiteralString) nl = ml_literal_token nl s.
Proof. unfold write_toml_value, ml_literal_token. rewrite andb_true_r. reflexivity. Qed.
Lemma wtv_bare s nl : write_toml_value s None nl = s.
Proof. unfold write_toml_value. rewrite andb_false_r. cbn [app]. apply app_nil_r. Qed.

(* ---- `string` picks the right alternative -------------------------------------------------------- *)
Lemma no_quote_head_22 r : no_quote_head r -> not_head x22 r.
Proof. destruct r as [|b r]; [auto|]. unfold no_quote_head, not_head. intros [H _]. rewrite byte_eqb_sym. exact H. Qed.
Lemma no_quote_head_27 r : no_quote_head r -> not_head x27 r.
Proof. destruct r as [|b r]; [auto|]. unfold no_quote_head, not_head. intros [_ H]. rewrite byte_eqb_sym. exact H. Qed.

Lemma ml_basic_string_bt Y p d : strip_prefix [x22; x22; x22] Y = None ->
  exists e i', ml_basic_string (mkIn Y p d) = Bt e i'.
Proof.
  intro H. unfold ml_basic_string. rewrite (bind_bt _ _ _ _ _ (lit_no ML_BASIC_STRING_DELIM Y p d H)). eauto.
Qed.
Lemma basic_string_bt Y p d : stops (byte_eqb x22) Y ->
  exists e i', basic_string (mkIn Y p d) = Bt e i'.
Proof.
  intro H. unfold basic_string. rewrite (bind_bt _ _ _ _ _ (byte_no QUOTATION_MARK Y p d H)). eauto.
Qed.
Lemma ml_literal_string_bt Y p d : strip_prefix [x27; x27; x27] Y = None ->
  exists e i', ml_literal_string (mkIn Y p d) = Bt e i'.
Proof.
  intro H. unfold ml_literal_string.
  rewrite (bind_bt _ _ _ _ _ (bind_bt _ _ _ _ _ (lit_no ML_LITERAL_STRING_DELIM Y p d H))). eauto.
Qed.

Lemma enc_false_head s : s <> [] -> exists h Z, enc false 0 s = h :: Z /\ byte_eqb x22 h = false.
Proof.
  intro H. destruct s as [|b s]; [congruence|].
  destruct (byte_eqb b x22) eqn:E.
  - apply byte_eqb_eq in E. subst b. exists x5c. eexists. split; [reflexivity|reflexivity].
  - destruct (enc_cons_other false b E) as [h [pre [Hh He]]]. rewrite He. cbn [app]. eauto.
Qed.

Lemma string_basic s r p d : utf8_valid_b s = true -> no_quote_head r ->
  string_ (mkIn (basic_token s ++ r) p d) = Ok s (after (basic_token s) r p d).
Proof.
  intros Hu Hr. unfold string_.
  assert (Hn : strip_prefix [x22; x22; x22] (basic_token s ++ r) = None).
  { unfold basic_token. cbn [app]. rewrite <- app_assoc. cbn [app].
    destruct s as [|b s0].
    - cbn [enc app]. apply strip3_2. apply no_quote_head_22. exact Hr.
    - destruct (enc_false_head (b :: s0)) as [h [Z [HZ Hh]]]; [discriminate|].
      rewrite HZ. cbn [strip_prefix app]. rewrite byte_eqb_refl, Hh. reflexivity. }
  destruct (ml_basic_string_bt _ p d Hn) as [e [i' He]]. rewrite (alt_bt _ _ _ _ _ He).
  apply alt_ok. apply basic_string_rt. exact Hu.
Qed.

Lemma string_ml_basic nl s r p d : utf8_valid_b s = true -> no_quote_head r ->
  (nl = false -> forallb (fun b => negb (byte_eqb b x0a)) s = true) ->
  string_ (mkIn (ml_basic_token nl s ++ r) p d) = Ok s (after (ml_basic_token nl s) r p d).
Proof.
  intros Hu Hr Hnl. unfold string_. apply alt_ok. apply ml_basic_string_rt; auto. apply no_quote_head_22. exact Hr.
Qed.

Lemma string_literal s r p d :
  forallb (in_class LITERAL_CHAR) s = true -> utf8_valid_b s = true -> no_quote_head r ->
  string_ (mkIn (literal_token s ++ r) p d) = Ok s (after (literal_token s) r p d).
Proof.
  intros Hc Hu Hr. unfold string_.
  destruct (ml_basic_string_bt (literal_token s ++ r) p d eq_refl) as [e1 [i1 H1]]. rewrite (alt_bt _ _ _ _ _ H1).
  destruct (basic_string_bt (literal_token s ++ r) p d eq_refl) as [e2 [i2 H2]]. rewrite (alt_bt _ _ _ _ _ H2).
  assert (Hn : strip_prefix [x27; x27; x27] (literal_token s ++ r) = None).
  { unfold literal_token. cbn [app]. rewrite <- app_assoc. cbn [app].
    destruct s as [|b s0].
    - cbn [app]. apply strip3_2. apply no_quote_head_27. exact Hr.
    - cbn [forallb] in Hc. apply andb_true_iff in Hc as [Hb _].
      assert (E : byte_eqb x27 b = false).
      { destruct (byte_eqb x27 b) eqn:E; [|reflexivity]. apply byte_eqb_eq in E. subst b.
        rewrite literal_char_apos in Hb. discriminate. }
      cbn [strip_prefix app]. rewrite byte_eqb_refl, E. reflexivity. }
  destruct (ml_literal_string_bt _ p d Hn) as [e3 [i3 H3]]. rewrite (alt_bt _ _ _ _ _ H3).
  apply literal_string_rt; assumption.
Qed.

Lemma string_ml_literal nl s r p d :
  forallb okb s = true -> no3 x27 0 s = true -> utf8_valid_b s = true -> no_quote_head r ->
  (nl = false -> forallb (fun b => negb (byte_eqb b x0a)) s = true) ->
  string_ (mkIn (ml_literal_token nl s ++ r) p d) = Ok s (after (ml_literal_token nl s) r p d).
Proof.
  intros Hok Hno Hu Hr Hnl. unfold string_.
  destruct (ml_basic_string_bt (ml_literal_token nl s ++ r) p d eq_refl) as [e1 [i1 H1]]. rewrite (alt_bt _ _ _ _ _ H1).
  destruct (basic_string_bt (ml_literal_token nl s ++ r) p d eq_refl) as [e2 [i2 H2]]. rewrite (alt_bt _ _ _ _ _ H2).
  apply alt_ok. apply ml_literal_string_rt; auto. apply no_quote_head_27. exact Hr.
Qed.

(* ---- the metrics license the styles -------------------------------------------------------------- *)
Lemma forallb_3 {A} (f1 f2 f3 g : A -> bool) l :
  (forall x, f1 x = true -> f2 x = true -> f3 x = true -> g x = true) ->
  forallb f1 l = true -> forallb f2 l = true -> forallb f3 l = true -> forallb g l = true.
Proof. intro H. rewrite !forallb_forall. auto. Qed.

Lemma literal_class s :
  forallb (fun b => negb (needs_code b)) s = true ->
  forallb (fun b => negb (byte_eqb b x0a)) s = true ->
  forallb (fun b => negb (byte_eqb b x27)) s = true ->
  forallb (in_class LITERAL_CHAR) s = true.
Proof.
  apply forallb_3. intros b H1 H2 H3. unfold needs_code in H1. pose proof (b2n_lt b). byten. lia.
Qed.

Lemma ml_literal_class s :
  forallb (fun b => negb (needs_code b)) s = true -> forallb okb s = true.
Proof.
  apply forallb_impl. intros b H. unfold needs_code in H. unfold okb, cb. pose proof (b2n_lt b). byten. lia.
Qed.

(* what a value style writes: one of four spellings, the literal ones only where the metrics allow *)
Inductive value_token (s : bytes) (m : vmetrics) : bytes -> Prop :=
| vt_basic : value_token s m (basic_token s)
| vt_ml_basic : value_token s m (ml_basic_token (vm_newline m) s)
| vt_literal : vm_escape_codes m = false -> (0 <? max_seq_single_quotes m)%N = false -> vm_newline m = false ->
    value_token s m (literal_token s)
| vt_ml_literal : vm_escape_codes m = false -> (2 <? max_seq_single_quotes m)%N = false ->
    value_token s m (ml_literal_token (vm_newline m) s).

Lemma value_token_rt s m t r p d :
  vmetrics_of s = m -> utf8_valid_b s = true -> value_token s m t -> no_quote_head r ->
  string_ (mkIn (t ++ r) p d) = Ok s (after t r p d).
Proof.
  intros Hm Hu Ht Hr. destruct Ht as [| |E1 E2 E3|E1 E2].
  - apply string_basic; assumption.
  - apply string_ml_basic; auto. apply (vm_of_newline s m Hm).
  - apply string_literal; auto. apply literal_class.
    + apply (vm_of_codes s m Hm E1).
    + apply (vm_of_newline s m Hm E3).
    + apply (vm_of_no_apos s m Hm E2).
  - apply string_ml_literal; auto.
    + apply ml_literal_class. apply (vm_of_codes s m Hm E1).
    + apply (vm_of_no3 s m Hm E2).
    + apply (vm_of_newline s m Hm).
Qed.

Section ValueToken.
  Variables (s : bytes) (m : vmetrics).

  Lemma as_basic_token : value_token s m (as_basic s m).
  Proof. unfold as_basic. rewrite wtv_basic. constructor. Qed.

  Lemma as_ml_basic_token : value_token s m (as_ml_basic s m).
  Proof. unfold as_ml_basic. rewrite wtv_ml_basic. constructor. Qed.

  Lemma as_literal_token t : as_literal s m = Some t -> value_token s m t.
  Proof.
    unfold as_literal. intro H.
    destruct (vm_escape_codes m) eqn:E1; [discriminate|].
    destruct (0 <? max_seq_single_quotes m)%N eqn:E2; [discriminate|].
    destruct (vm_newline m) eqn:E3; [discriminate|]. injection H as <-.
    rewrite wtv_literal. constructor; assumption.
  Qed.

  Lemma as_ml_literal_token t : as_ml_literal s m = Some t -> value_token s m t.
  Proof.
    unfold as_ml_literal. intro H.
    destruct (vm_escape_codes m) eqn:E1; [discriminate|].
    destruct (2 <? max_seq_single_quotes m)%N eqn:E2; [discriminate|]. injection H as <-.
    rewrite wtv_ml_literal. constructor; assumption.
  Qed.

  Lemma as_basic_pretty_token t : as_basic_pretty s m = Some t -> value_token s m t.
  Proof.
    unfold as_basic_pretty. destruct (_ || _ || _ || _); [discriminate|]. intro H. injection H as <-. apply as_basic_token.
  Qed.

  Lemma as_ml_basic_pretty_token t : as_ml_basic_pretty s m = Some t -> value_token s m t.
  Proof.
    unfold as_ml_basic_pretty. destruct (_ || _ || _); [discriminate|]. intro H. injection H as <-. apply as_ml_basic_token.
  Qed.

  Lemma as_default_token : value_token s m (as_default s m).
  Proof.
    unfold as_default, or_else.
    destruct (as_basic_pretty s m) as [t|] eqn:E1; [apply as_basic_pretty_token, E1|].
    destruct (as_literal s m) as [t|] eqn:E2; [apply as_literal_token, E2|].
    destruct (as_ml_basic_pretty s m) as [t|] eqn:E3; [apply as_ml_basic_pretty_token, E3|].
    destruct (as_ml_literal s m) as [t|] eqn:E4; [apply as_ml_literal_token, E4|].
    destruct (vm_newline m); [apply as_ml_basic_token|apply as_basic_token].
  Qed.

  Lemma write_string_m_token st t : write_string_m st s m = Some t -> value_token s m t.
  Proof.
    destruct st; cbn [write_string_m]; intro H.
    - injection H as <-. apply as_default_token.
    - apply as_literal_token, H.
    - apply as_ml_literal_token, H.
    - apply as_basic_pretty_token, H.
    - apply as_ml_basic_pretty_token, H.
    - injection H as <-. apply as_basic_token.
    - injection H as <-. apply as_ml_basic_token.
  Qed.
End ValueToken.

(* every value style, in front of any continuation that does not start with a quote character *)
Theorem value_styles_rt s st t r p d :
  utf8_valid_b s = true -> write_string st s = Some t -> no_quote_head r ->
  string_ (mkIn (t ++ r) p d) = Ok s (after t r p d).
Proof.
  intros Hu H Hr. apply (value_token_rt s (vmetrics_of s)); [reflexivity|exact Hu| |exact Hr].
  apply (write_string_m_token s (vmetrics_of s) st t H).
Qed.

(* ---- value: the string token as a value ------------------------------------------------------------ *)
Definition quote_headed (t : bytes) : Prop :=
  exists b t', t = b :: t' /\ (byte_eqb b QUOTATION_MARK || byte_eqb b APOSTROPHE) = true.

Lemma quote_headed_token s m st t : write_string_m st s m = Some t -> quote_headed t.
Proof.
  intro H. destruct (write_string_m_token s m st t H);
    unfold basic_token, ml_basic_token, literal_token, ml_literal_token; cbn [app];
    do 2 eexists; split; reflexivity.
Qed.

(* the value `value` builds for a string token spanning [p, p + |t|) *)
Definition string_value (s t : bytes) (p : N) : value :=
  VScalar (SString s) (Some (raw_with_span (p, (p + N.of_nat (length t))%N))) (decor_new REmpty REmpty).

Lemma value_of_string s t r p d : quote_headed t ->
  string_ (mkIn (t ++ r) p d) = Ok s (after t r p d) ->
  value_ (mkIn (t ++ r) p d) = Ok (string_value s t p) (after t r p d).
Proof.
  intros [b [t' [Ht Hb]]] Hs. unfold value_. cbn [rest]. cbn [value_f].
  unfold value_step, pmap, with_span, value_body.
  assert (Hp : context (peek any) (mkIn (t ++ r) p d) = Ok b (mkIn (t ++ r) p d)).
  { rewrite Ht. cbn [app]. apply context_ok. eapply peek_ok. apply any_cons. }
  rewrite (bind_ok _ _ _ _ _ Hp). rewrite Hb. cbv beta iota. rewrite (pmap_ok _ _ _ _ _ Hs). reflexivity.
Qed.

Lemma eof_nil p d : eof (mkIn [] p d) = Ok tt (mkIn [] p d).
Proof. reflexivity. Qed.

Lemma parse_all_ok {A} (p : parser A) t a :
  p (mkIn (t ++ []) 0%N 0) = Ok a (after t [] 0%N 0) -> parse_all p t = Done a.
Proof.
  intro H. unfold parse_all, new_input. rewrite app_nil_r in H.
  rewrite (bind_ok _ _ _ _ _ H). unfold after. rewrite (bind_ok _ _ _ _ _ (eof_nil _ _)). reflexivity.
Qed.

(* the same through terminated(p, end_of_input), the form of the stand-alone entry points *)
Lemma parse_all_eoi_ok_after {A} (p : parser A) t a :
  p (mkIn (t ++ []) 0%N 0) = Ok a (after t [] 0%N 0) -> parse_all (terminated_eoi p) t = Done a.
Proof. intro H. apply parse_all_eoi_done. apply parse_all_ok. exact H. Qed.

Theorem value_styles_parse s st t :
  utf8_valid_b s = true -> write_string st s = Some t ->
  string_ (new_input t) = Ok s (mkIn [] (N.of_nat (length t)) 0) /\
  parse_value_raw t = POk (string_value s t 0).
Proof.
  intros Hu H.
  pose proof (value_styles_rt s st t [] 0%N 0 Hu H I) as Hs.
  split.
  - unfold new_input. rewrite app_nil_r in Hs. rewrite Hs. unfold after. rewrite N.add_0_l. reflexivity.
  - unfold parse_value_raw. rewrite (parse_all_eoi_ok_after value_ t (string_value s t 0)); [reflexivity|].
    apply value_of_string; [|exact Hs].
    unfold write_string in H.
    apply (quote_headed_token s (vmetrics_of s) st t H).
Qed.

(* ---- keys --------------------------------------------------------------------------------------- *)
Lemma forallb_2 {A} (f1 f2 g : A -> bool) l :
  (forall x, f1 x = true -> f2 x = true -> g x = true) ->
  forallb f1 l = true -> forallb f2 l = true -> forallb g l = true.
Proof. intro H. rewrite !forallb_forall. auto. Qed.

Lemma key_literal_class s :
  forallb (fun b => negb (key_needs_code b)) s = true ->
  forallb (fun b => negb (byte_eqb b x27)) s = true ->
  forallb (in_class LITERAL_CHAR) s = true.
Proof.
  apply forallb_2. intros b A1 A2. unfold key_needs_code in A1. pose proof (b2n_lt b). byten. lia.
Qed.

(* what a key style writes: the basic token, the key itself where it is a bare key, or the literal token
   where its bytes are literal characters *)
Inductive key_token (s : bytes) : bytes -> Prop :=
| kt_basic : key_token s (basic_token s)
| kt_bare : s <> [] -> forallb (in_class UNQUOTED_CHAR) s = true -> key_token s s
| kt_literal : forallb (in_class LITERAL_CHAR) s = true -> key_token s (literal_token s).

Lemma key_token_rt s t r p d : utf8_valid_b s = true -> key_token s t -> no_unquoted_head r ->
  simple_key (mkIn (t ++ r) p d) = Ok (key_result t s p) (after t r p d).
Proof.
  intros Hu Ht Hr. destruct Ht as [|Hne Hc|Hc].
  - apply simple_key_basic. exact Hu.
  - apply simple_key_unquoted; assumption.
  - apply simple_key_literal; assumption.
Qed.

Section KeyToken.
  Variable s : bytes.

  Lemma key_basic_token : key_token s (key_basic s).
  Proof. unfold key_basic. rewrite wtv_basic. constructor. Qed.

  Lemma key_unquoted_token t : key_unquoted s (kmetrics_of s) = Some t -> key_token s t.
  Proof.
    unfold key_unquoted. intro H. destruct (km_unquoted (kmetrics_of s)) eqn:E; [|discriminate].
    injection H as <-. rewrite wtv_bare.
    unfold kmetrics_of in E. apply km_unquoted_inv in E. cbn [km_unquoted] in E. destruct E as [E1 E2].
    constructor.
    - destruct s; [discriminate|discriminate].
    - apply (forallb_impl is_unquoted_byte); [|exact E2]. intros b Hb. rewrite <- unquoted_class. exact Hb.
  Qed.

  Lemma key_literal_token t : key_literal s (kmetrics_of s) = Some t -> key_token s t.
  Proof.
    unfold key_literal. intro H.
    destruct (km_escape_codes (kmetrics_of s)) eqn:E1; [discriminate|].
    destruct (km_single (kmetrics_of s)) eqn:E2; [discriminate|]. cbn [orb] in H. injection H as <-.
    rewrite wtv_literal. unfold kmetrics_of in E1, E2.
    apply km_codes_inv in E1. apply km_single_inv in E2.
    constructor. apply key_literal_class; tauto.
  Qed.

  Lemma key_basic_pretty_token t : key_basic_pretty s (kmetrics_of s) = Some t -> key_token s t.
  Proof.
    unfold key_basic_pretty. destruct (_ || _ || _); [discriminate|]. intro H. injection H as <-. apply key_basic_token.
  Qed.

  Lemma write_key_token st t : write_key st s = Some t -> key_token s t.
  Proof.
    unfold write_key. intro H. destruct st.
    - injection H as <-. unfold or_else.
      destruct (key_unquoted s (kmetrics_of s)) as [t|] eqn:E1; [apply key_unquoted_token, E1|].
      destruct (key_basic_pretty s (kmetrics_of s)) as [t|] eqn:E2; [apply key_basic_pretty_token, E2|].
      destruct (key_literal s (kmetrics_of s)) as [t|] eqn:E3; [apply key_literal_token, E3|].
      apply key_basic_token.
    - apply key_unquoted_token, H.
    - apply key_literal_token, H.
    - apply key_basic_pretty_token, H.
    - injection H as <-. apply key_basic_token.
  Qed.
End KeyToken.

(* every key style, in front of any continuation that does not extend a bare key *)
Theorem key_styles_rt s st t r p d :
  utf8_valid_b s = true -> write_key st s = Some t -> no_unquoted_head r ->
  simple_key (mkIn (t ++ r) p d) = Ok (key_result t s p) (after t r p d).
Proof. intros Hu H Hr. apply key_token_rt; [exact Hu|exact (write_key_token s st t H)|exact Hr]. Qed.

Theorem key_styles_parse s st t :
  utf8_valid_b s = true -> write_key st s = Some t ->
  simple_key (new_input t) = Ok (key_result t s 0) (mkIn [] (N.of_nat (length t)) 0) /\
  parse_key t = POk (key_result t s 0).
Proof.
  intros Hu H. pose proof (key_styles_rt s st t [] 0%N 0 Hu H I) as Hs. split.
  - unfold new_input. rewrite app_nil_r in Hs. rewrite Hs. unfold after. rewrite N.add_0_l. reflexivity.
  - unfold parse_key. rewrite (parse_all_eoi_ok_after simple_key t (key_result t s 0)); [reflexivity|exact Hs].
Qed.

(* ---- a default style always exists ---------------------------------------------------------------- *)
Theorem default_total s : write_string StDefault s <> None /\ write_key KDefault s <> None.
Proof.
  split.
  - unfold write_string. discriminate.
  - discriminate.
Qed.

(* ---- the u8 run counters saturate at 255 (before repo commit 245f548 they overflowed: a panic in a
   build with overflow checks) ---------------------------------------------------------------------- *)
Theorem counters_saturate : forall cur hit, (cur <= 255)%N -> (qnext cur hit <= 255)%N.
Proof. intros cur hit H. unfold qnext. destruct hit; [|lia]. destruct (cur =? 255)%N eqn:E; lia. Qed.
Theorem saturation_witness :
  max_seq_single_quotes (vmetrics_of (repeat x27 256)) = 255%N /\ max_seq_single_quotes (vmetrics_of (repeat x27 300)) = 255%N.
Proof. vm_compute. auto. Qed.
