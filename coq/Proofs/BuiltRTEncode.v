(* Proofs/BuiltRTEncode.v — C06: the text the printer (Model/Encode.v) produces for a constructed
   value, as a structural function `txt` (no fuel), and the induction principle of BuiltValue. *)
From TV Require Import Base.Prelude Base.Utf8 Base.Winnow Gen.Consts.
From TV Require Import Model.Datetime Model.Numbers Model.Tree Model.Write Model.Encode Model.Build.
From TV Require Import Proofs.ModelFacts.
Require Import Lia ZifyBool ZifyN ZifyNat.

(* ---- induction over constructed values ---------------------------------------------------------- *)
Lemma BuiltValue_sind (PS : scalar -> Prop) (PK : bytes -> Prop) (P : value -> Prop) :
  (forall s d, PS s -> decor_built d -> P (VScalar s None d)) ->
  (forall es d, decor_built d -> Forall (BuiltValue PS PK) es -> Forall P es ->
                P (VArray (map IValue es) REmpty false d None)) ->
  (forall es d, decor_built d -> Forall (BuiltValue PS PK) es -> Forall P es ->
                P (VArray (map (fun e => IValue (ml_elem e)) es) (RExplicit [x0a]) true d None)) ->
  (forall l d, decor_built d -> NoDup (map fst l) -> Forall PK (map fst l) ->
               Forall (BuiltValue PS PK) (map snd l) -> Forall P (map snd l) ->
               P (VInline (mk_inline_items l) REmpty false false d None)) ->
  forall v, BuiltValue PS PK v -> P v.
Proof.
  intros Hs Ha Hm Hi. fix IH 2. intros v Hv. destruct Hv as [s d Hps Hd | es d Hd Hes | es d Hd Hes | l d Hd Hnd Hk Hl].
  - apply Hs; assumption.
  - apply Ha; [exact Hd | exact Hes |].
    induction Hes as [|e es He Hes IHes]; constructor; [apply IH, He | exact IHes].
  - apply Hm; [exact Hd | exact Hes |].
    induction Hes as [|e es He Hes IHes]; constructor; [apply IH, He | exact IHes].
  - apply Hi; [exact Hd | exact Hnd | exact Hk | exact Hl |].
    induction Hl as [|e es He Hes IHes]; constructor; [apply IH, He | exact IHes].
Qed.

(* the elements of a constructed array are all values *)
Lemma values_of_built {B} (g : value -> B) (h : value -> value) es :
  flat_map (fun it => match it with IValue e => [g e] | _ => [] end) (map (fun e => IValue (h e)) es) = map (fun e => g (h e)) es.
Proof. induction es as [|e es IH]; [reflexivity|]. cbn [map flat_map app]. rewrite IH. reflexivity. Qed.

(* ---- the text -------------------------------------------------------------------------------------- *)
Section Txt.
  Variable ftext : fval -> bytes.
  Variable PS : scalar -> Prop.
  Variable PK : bytes -> Prop.
  Local Notation BuiltValue := (BuiltValue PS PK).

  Definition scalar_txt (s : scalar) : bytes :=
    match s with SFloat f => ftext f | _ => scalar_default_repr s end.

  (* a token between its decor *)
  Definition wrap (d : decor) (dflt : bytes * bytes) (t : bytes) : bytes :=
    decor_prefix d (fst dflt) ++ t ++ decor_suffix d (snd dflt).

  Definition arr_txt (l : list (decor * bytes)) : bytes :=
    match l with
    | [] => []
    | (d, t) :: tl =>
      wrap d DEFAULT_LEADING_VALUE_DECOR t
      ++ concat (map (fun dt => x2c :: wrap (fst dt) DEFAULT_VALUE_DECOR (snd dt)) tl)
    end.

  Definition key_txt (k : key) : bytes := encode_key_path [k] DEFAULT_INLINE_KEY_DECOR.

  Fixpoint inl_txt (l : list (key * (decor * bytes))) : bytes :=
    match l with
    | [] => []
    | [(k, (d, t))] => key_txt k ++ x3d :: wrap d DEFAULT_TRAILING_VALUE_DECOR t
    | (k, (d, t)) :: tl => key_txt k ++ x3d :: wrap d DEFAULT_VALUE_DECOR t ++ x2c :: inl_txt tl
    end.

  Fixpoint txt (v : value) : bytes :=
    match v with
    | VScalar s _ _ => scalar_txt s
    | VArray vals tr comma _ _ =>
      x5b :: arr_txt (flat_map (fun it => match it with IValue e => [(value_decor e, txt e)] | _ => [] end) vals)
          ++ (if comma && negb (match vals with [] => true | _ => false end) then [x2c] else [])
          ++ raw_encode tr [] ++ [x5d]
    | VInline items _ _ _ _ _ =>
      x7b :: inl_txt (flat_map (fun kv => match kv with
                                          | (k, IValue e) => [(k, (value_decor e, txt e))]
                                          | _ => [] end) items)
          ++ [x7d]
    end.

  Definition etxt (v : value) (dflt : bytes * bytes) : bytes := wrap (value_decor v) dflt (txt v).

  (* on the shapes constructed values have *)
  Lemma txt_array es d sp :
    txt (VArray (map IValue es) REmpty false d sp) = x5b :: arr_txt (map (fun e => (value_decor e, txt e)) es) ++ [x5d].
  Proof. cbn [txt andb raw_encode app]. rewrite (values_of_built _ (fun e => e)). reflexivity. Qed.
  (* the multi-line layout: every element on its own line, a comma after each, the bracket on the last line *)
  Lemma txt_ml_elem e : txt (ml_elem e) = txt e.
  Proof. destruct e; reflexivity. Qed.
  Definition ml_decor (e : value) : decor := mkDecor (Some (RExplicit ML_PREFIX)) (d_suffix (value_decor e)).
  Lemma decor_ml_elem e : value_decor (ml_elem e) = ml_decor e.
  Proof. destruct e; reflexivity. Qed.
  Lemma txt_array_ml es d sp :
    txt (VArray (map (fun e => IValue (ml_elem e)) es) (RExplicit [x0a]) true d sp)
    = x5b :: arr_txt (map (fun e => (ml_decor e, txt e)) es) ++ (match es with [] => [] | _ => [x2c] end) ++ [x0a; x5d].
  Proof.
    cbn [txt]. rewrite (values_of_built _ ml_elem).
    rewrite (map_ext _ (fun e => (ml_decor e, txt e))) by (intro e; rewrite decor_ml_elem, txt_ml_elem; reflexivity).
    destruct es; reflexivity.
  Qed.
  Lemma txt_inline l pre im dt d sp :
    txt (VInline (mk_inline_items l) pre im dt d sp)
    = x7b :: inl_txt (map (fun kv => (key_new (fst kv), (value_decor (snd kv), txt (snd kv)))) l) ++ [x7d].
  Proof.
    cbn [txt].
    assert (E : flat_map (fun kv => match kv with (k, IValue e) => [(k, (value_decor e, txt e))] | _ => [] end)
                         (mk_inline_items l)
                = map (fun kv => (key_new (fst kv), (value_decor (snd kv), txt (snd kv)))) l).
    { unfold mk_inline_items. induction l as [|[k e] l IH]; [reflexivity|].
      cbn [map flat_map app fst snd]. f_equal. exact IH. }
    rewrite E. reflexivity.
  Qed.

  (* ---- Encode.encode_value on rendered constructed values ------------------------------------------- *)
  Lemma render_decor v : value_decor (render_value ftext v) = value_decor v.
  Proof. destruct v as [s r d| |]; [destruct s, r|..]; reflexivity. Qed.

  Lemma render_item_value v : render_item ftext (IValue v) = IValue (render_value ftext v).
  Proof. reflexivity. Qed.
  Lemma render_array vals tr c d sp :
    render_value ftext (VArray vals tr c d sp) = VArray (map (render_item ftext) vals) tr c d sp.
  Proof. reflexivity. Qed.
  Lemma render_inline items pre im dt d sp :
    render_value ftext (VInline items pre im dt d sp)
    = VInline (map (fun kv => match kv with (k, i0) => (k, render_item ftext i0) end) items) pre im dt d sp.
  Proof. reflexivity. Qed.
  Lemma render_built_array es tr c d sp :
    render_value ftext (VArray (map IValue es) tr c d sp) = VArray (map IValue (map (render_value ftext) es)) tr c d sp.
  Proof. rewrite render_array, !map_map. reflexivity. Qed.
  Lemma render_built_inline l pre im dt d sp :
    render_value ftext (VInline (mk_inline_items l) pre im dt d sp)
    = VInline (mk_inline_items (map (fun kv => (fst kv, render_value ftext (snd kv))) l)) pre im dt d sp.
  Proof. rewrite render_inline. unfold mk_inline_items. rewrite !map_map. reflexivity. Qed.

  Lemma render_ml_elem e : render_value ftext (ml_elem e) = ml_elem (render_value ftext e).
  Proof. destruct e as [s r d| |]; [destruct s, r|..]; reflexivity. Qed.
  Lemma value_size_ml_elem e : value_size (ml_elem e) = value_size e.
  Proof. destruct e; reflexivity. Qed.

  Lemma value_size_array vals tr c d sp :
    value_size (VArray vals tr c d sp) = S (fold_right (fun it acc => item_size it + acc) 0 vals).
  Proof. reflexivity. Qed.
  Lemma value_size_inline items pre im dt d sp :
    value_size (VInline items pre im dt d sp)
    = S (fold_right (fun kv acc => match kv with (_, i0) => item_size i0 + acc end) 0 items).
  Proof. reflexivity. Qed.
  Lemma item_size_value v : item_size (IValue v) = S (value_size v).
  Proof. reflexivity. Qed.

  Lemma value_size_render : forall v, BuiltValue v -> value_size (render_value ftext v) = value_size v.
  Proof.
    apply BuiltValue_sind.
    - intros s d _ _. destruct s; reflexivity.
    - intros es d _ _ IH. rewrite render_built_array, !value_size_array. f_equal.
      induction IH as [|e es' He _ IHes]; [reflexivity|].
      cbn [map fold_right]. rewrite !item_size_value, He, IHes. reflexivity.
    - intros es d _ _ IH. rewrite render_array, !value_size_array. f_equal.
      induction IH as [|e es' He _ IHes]; [reflexivity|].
      cbn [map fold_right]. rewrite render_item_value, render_ml_elem, !item_size_value, !value_size_ml_elem, He, IHes. reflexivity.
    - intros l d _ _ _ _ IH. rewrite render_built_inline, !value_size_inline. f_equal. unfold mk_inline_items.
      induction l as [|[k e] l IHl]; [reflexivity|].
      cbn [map fst snd] in IH. inversion IH as [|? ? He Hl']; subst.
      cbn [map fold_right fst snd]. rewrite !item_size_value, He, (IHl Hl'). reflexivity.
  Qed.

  (* the (key path, value) lines of a constructed inline table: one per entry *)
  Lemma built_not_dotted : forall v, BuiltValue v ->
    match render_value ftext v with VInline _ _ _ true _ _ => False | _ => True end.
  Proof. intros v H. destruct H as [s d Hps Hd | es d Hd Hes | es d Hd Hes | l d Hd Hnd Hk Hl]; [destruct s|..]; exact I. Qed.

  Lemma inline_values_built fuel l :
    Forall BuiltValue (map snd l) ->
    inline_values (S fuel) [] (mk_inline_items (map (fun kv => (fst kv, render_value ftext (snd kv))) l))
    = map (fun kv => ([key_new (fst kv)], render_value ftext (snd kv))) l.
  Proof.
    intro H. induction l as [|[k e] l IH]; [reflexivity|].
    cbn [map fst snd] in H. inversion H as [|? ? He Hl]; subst.
    specialize (IH Hl).
    unfold mk_inline_items in IH |- *.
    cbn [map fst snd] in IH |- *. cbn [inline_values flat_map fst snd] in IH |- *.
    rewrite IH. cbn [app].
    pose proof (built_not_dotted e He) as Hnd.
    destruct (render_value ftext e) as [s r d|vals tr c d sp|items pre im dt d sp]; try reflexivity.
    destruct dt; [contradiction|reflexivity].
  Qed.

  (* the indexed loop of encode_table against inl_txt *)
  Lemma inl_txt_one k d t : inl_txt [(k, (d, t))] = key_txt k ++ x3d :: wrap d DEFAULT_TRAILING_VALUE_DECOR t.
  Proof. reflexivity. Qed.
  Lemma inl_txt_cons k d t x tl :
    inl_txt ((k, (d, t)) :: x :: tl) = key_txt k ++ x3d :: wrap d DEFAULT_VALUE_DECOR t ++ x2c :: inl_txt (x :: tl).
  Proof. reflexivity. Qed.

  Lemma enc_kvs_txt f (len : nat) (l : list (bytes * value)) :
    (forall kv dflt, In kv l -> encode_value f (render_value ftext (snd kv)) dflt = etxt (snd kv) dflt) ->
    forall i, l <> [] -> i + length l = len ->
    enc_kvs f len i (map (fun kv => ([key_new (fst kv)], render_value ftext (snd kv))) l)
    = (if Nat.eqb i 0 then [] else [x2c])
      ++ inl_txt (map (fun kv => (key_new (fst kv), (value_decor (snd kv), txt (snd kv)))) l).
  Proof.
    induction l as [|[k e] l IH]; intros Henc i Hne Hlen; [contradiction|].
    destruct l as [|[k2 e2] l2].
    - cbn [map enc_kvs fst snd length] in *. f_equal. rewrite inl_txt_one, app_nil_r.
      rewrite (Henc (k, e)) by (left; reflexivity). cbn [snd].
      replace (Nat.eqb i (len - 1)) with true by (symmetry; apply Nat.eqb_eq; lia).
      reflexivity.
    - assert (IH' := IH (fun kv dflt Hin => Henc kv dflt (or_intror Hin)) (S i)).
      clear IH.
      set (l' := (k2, e2) :: l2) in *.
      change (map (fun kv => ([key_new (fst kv)], render_value ftext (snd kv))) ((k, e) :: l'))
        with (([key_new k], render_value ftext e) :: map (fun kv => ([key_new (fst kv)], render_value ftext (snd kv))) l').
      cbn [enc_kvs].
      rewrite IH'; [ | unfold l'; discriminate | unfold l' in *; cbn [length] in *; lia ].
      rewrite (Henc (k, e)) by (left; reflexivity). cbn [snd].
      replace (Nat.eqb i (len - 1)) with false by (symmetry; apply Nat.eqb_neq; unfold l' in Hlen; cbn [length] in Hlen; lia).
      f_equal.
  Qed.

  (* the elements of an array, each printed as `it e`, with the decor `dec e` around the text of e *)
  Lemma enc_elems_arr f (it : value -> value) (dec : value -> decor) (es : list value) :
    (forall e dflt, In e es -> encode_value f (it e) dflt = wrap (dec e) dflt (txt e)) ->
    enc_elems f true (map (fun e => IValue (it e)) es) = arr_txt (map (fun e => (dec e, txt e)) es).
  Proof.
    intro Henc. destruct es as [|e es]; [reflexivity|].
    cbn [map enc_elems arr_txt app]. rewrite (Henc e) by (left; reflexivity). f_equal.
    assert (Htl : forall e' dflt, In e' es -> encode_value f (it e') dflt = wrap (dec e') dflt (txt e'))
      by (intros e' dflt Hin; apply Henc; right; exact Hin).
    clear Henc. induction es as [|e2 es IH]; [reflexivity|].
    cbn [map enc_elems concat app fst snd]. rewrite (Htl e2) by (left; reflexivity).
    rewrite IH by (intros e' dflt Hin; apply Htl; right; exact Hin). reflexivity.
  Qed.

  (* the printed form of a value is its token between its decor; the token does not depend on the decor *)
  Definition token (f : nat) (v : value) : bytes :=
    match v with
    | VScalar s r _ => match repr_str r with Some t => t | None => scalar_default_repr s end
    | VArray vals tr c _ _ =>
      [x5b] ++ enc_elems f true vals ++ (if c && negb (match vals with [] => true | _ => false end) then [x2c] else [])
      ++ raw_encode tr [] ++ [x5d]
    | VInline items pre im dt d sp =>
      let children := inline_values (S (value_size (VInline items pre im dt d sp))) [] items in
      [x7b] ++ raw_encode pre [] ++ enc_kvs f (length children) 0 children ++ [x7d]
    end.

  Lemma encode_value_token f v dflt : encode_value (S f) v dflt = wrap (value_decor v) dflt (token f v).
  Proof.
    destruct v; [rewrite enc_scalar|rewrite enc_array|rewrite enc_inline]; unfold wrap; cbn [value_decor token];
      cbv zeta; rewrite <- ?app_assoc; reflexivity.
  Qed.
  Lemma token_ml_elem f v : token f (ml_elem v) = token f v.
  Proof. destruct v; reflexivity. Qed.

  Lemma set_decor_self v :
    v = match v with
        | VScalar s r d => VScalar s r d
        | VArray vals tr c d sp => VArray vals tr c d sp
        | VInline items pre im dt d sp => VInline items pre im dt d sp
        end.
  Proof. destruct v; reflexivity. Qed.

  (* an element of a multi-line array is printed as the element itself, behind the line break *)
  Lemma encode_ml_elem f v t dflt :
    (forall dflt', encode_value (S f) v dflt' = wrap (value_decor v) dflt' t) ->
    encode_value (S f) (ml_elem v) dflt = wrap (ml_decor v) dflt t.
  Proof.
    intro H. rewrite encode_value_token, decor_ml_elem, token_ml_elem. f_equal.
    specialize (H dflt). rewrite encode_value_token in H. unfold wrap in H.
    apply app_inv_head in H. apply app_inv_tail in H. exact H.
  Qed.

  Lemma decor_built_default_nil d : decor_built d -> True.
  Proof. trivial. Qed.

  (* Encode.encode_value on a rendered constructed value is `etxt` *)
  Theorem encode_value_txt : forall v, BuiltValue v ->
    forall fuel dflt, value_size v < fuel -> encode_value fuel (render_value ftext v) dflt = etxt v dflt.
  Proof.
    apply (BuiltValue_sind PS PK (fun v => forall fuel dflt, value_size v < fuel ->
                                      encode_value fuel (render_value ftext v) dflt = etxt v dflt)).
    - intros s d _ _ fuel dflt Hf. destruct fuel as [|f]; [lia|].
      destruct s; reflexivity.
    - intros es d _ _ IH fuel dflt Hf. destruct fuel as [|f]; [lia|].
      rewrite render_array, map_map, enc_array, (enc_elems_arr f (render_value ftext) value_decor).
      + unfold etxt, wrap. rewrite txt_array. cbn [value_decor andb raw_encode strip_cr filter app].
        rewrite <- !app_assoc. reflexivity.
      + intros e dflt' Hin. rewrite Forall_forall in IH. apply (IH e Hin).
        pose proof (item_size_in _ _ (in_map IValue es e Hin)) as Hle.
        rewrite value_size_array in Hf. rewrite item_size_value in Hle. lia.
    - intros es d _ _ IH fuel dflt Hf. destruct fuel as [|f]; [lia|].
      rewrite render_array, map_map, enc_array, (enc_elems_arr f (fun e => render_value ftext (ml_elem e)) ml_decor).
      + unfold etxt, wrap. rewrite txt_array_ml. cbn [value_decor andb raw_encode strip_cr filter app].
        destruct es as [|e0 es']; cbn [map negb app]; rewrite <- ?app_assoc; reflexivity.
      + intros e dflt' Hin. rewrite Forall_forall in IH.
        pose proof (item_size_in _ _ (in_map (fun e => IValue (ml_elem e)) es e Hin)) as Hle.
        rewrite value_size_array in Hf. rewrite item_size_value, value_size_ml_elem in Hle.
        destruct f as [|f']; [lia|].
        assert (Hd : ml_decor e = ml_decor (render_value ftext e)) by (unfold ml_decor; rewrite render_decor; reflexivity).
        rewrite render_ml_elem, Hd. apply encode_ml_elem. intro dflt''. rewrite render_decor. apply (IH e Hin). lia.
    - intros l d _ _ _ Hl IH fuel dflt Hf. destruct fuel as [|f]; [lia|].
      rewrite render_built_inline, enc_inline. cbv zeta.
      rewrite (inline_values_built _ l Hl).
      unfold etxt, wrap. rewrite txt_inline. cbn [value_decor raw_encode strip_cr filter app].
      destruct l as [|kv l'] eqn:El.
      + reflexivity.
      + rewrite <- El in *. rewrite (enc_kvs_txt f (length (map (fun kv0 => ([key_new (fst kv0)], render_value ftext (snd kv0))) l)) l).
        * cbn [Nat.eqb app]. rewrite <- !app_assoc. reflexivity.
        * intros kv0 dflt' Hin. rewrite Forall_forall in IH. apply (IH (snd kv0)); [apply in_map; exact Hin|].
          pose proof (kv_size_in (mk_inline_items l) _ (in_map (fun kv => (key_new (fst kv), IValue (snd kv))) l kv0 Hin)) as Hle.
          rewrite value_size_inline in Hf. cbn [snd] in Hle. rewrite item_size_value in Hle. lia.
        * rewrite El. discriminate.
        * rewrite map_length. reflexivity.
  Qed.

  (* Display for Value *)
  Corollary display_value_txt v : BuiltValue v -> display_value (render_value ftext v) = etxt v ([], []).
  Proof.
    intro H. unfold display_value. apply encode_value_txt; [exact H|]. rewrite (value_size_render v H). lia.
  Qed.
End Txt.
