(* Proofs/SpansNodesDoc.v — C14, re-parsing at document level, part 2: for every key stored anywhere in a
   parsed document, slicing the source at the key's repr spells that key; for every value node written as a
   value (scalar, array, braces-delimited inline table), slicing the source at its span re-parses to a value
   with the same data. *)
From TV Require Import Base.Prelude Base.Utf8 Base.Winnow Gen.Consts.
From TV Require Import Model.Trivia Model.Tree Model.Parse Model.Document.
From TV Require Import Proofs.GrammarBase Proofs.GrammarValueSound.
From TV Require Import Proofs.NoPanicBase Proofs.NoPanicLex Proofs.NoPanicValue Proofs.NoPanicDoc.
From TV Require Import Proofs.SpansBase Proofs.SpansLex Proofs.SpansValue
                       Proofs.SpansExact Proofs.SpansReparse Proofs.SpansUtf8 Proofs.SpansUtf8Lex Proofs.SpansBoundary
                       Proofs.SpansBdDoc Proofs.SpansNodes.
From TV Require Import Proofs.DocumentOps.
Require Import Lia ZifyBool ZifyN ZifyNat.

Section S.
  Variable s : bytes.

  (* the property of a node: its span slices the source to a text that re-parses to it *)
  Definition Pnode (n : nnode) : Prop :=
    match n with
    | NKey text (Some (RSpanned a b)) => parse_key (slice s a b) = POk (raw_with_span (0, b - a)%N, text)
    | NKey _ _ => False
    | NVal (Some (a, b)) d => exists v', parse_value_raw (slice s a b) = POk v' /\ absv v' = d
    | NVal None _ => False
    end.
  Notation FP := (Forall Pnode).

  Ltac at_next A E :=
    match type of E with
    | ?p ?i = Ok _ ?j => let H := fresh "A" in assert (H : at_ s j) by (eapply (at_step p); [np|up|exact A|exact E])
    end.

  Lemma at_cursor i : at_ s i -> cursor_of s i. Proof. intros (C & _). exact C. Qed.

  (* ---- keys --------------------------------------------------------------------------------------------------------- *)
  Lemma key_part_n : gP s (fun k => Pnode (nk k)) key_part.
  Proof.
    intros i k i' At E. unfold key_part in E. apply bind_inv in E as (pre & j & E0 & E).
    apply bind_inv in E as ([r kk] & j0 & E1 & E). apply bind_inv in E as (suf & j1 & E2 & E). apply ret_inv in E as [-> ->].
    at_next At E0. destruct (key_reparse s j r kk j0 (at_cursor _ A) E1) as [-> K].
    unfold nk; cbn [k_key k_repr Pnode]. exact K.
  Qed.
  Lemma key_raw_n : gP s (fun l => FP (map nk l)) key_raw.
  Proof.
    intros i l i' At E. unfold key_raw in E. apply try_map_inv in E as (l0 & E & Gt). destruct (check_depth _); inversion Gt; subst l0.
    apply context_inv in E.
    assert (H : Forall (fun k => Pnode (nk k)) l).
    { eapply (gP_separated1 s (fun k => Pnode (nk k)) key_part (byte_ DOT_SEP)); [np|up|np|up|apply key_part_n|exact At|exact E]. }
    clear -H. induction H; cbn [map]; constructor; auto.
  Qed.
  Lemma key_n : gP s (fun l => FP (map nk l)) key_.
  Proof.
    intros i l i' At E. rewrite key_eq in E. apply bind_inv in E as (path & j & E1 & E).
    destruct (fix_key_path path) as [p|] eqn:F; [|discriminate]. apply ret_inv in E as [-> ->].
    rewrite (fix_key_path_nk _ _ F). eapply key_raw_n; eauto.
  Qed.

  Lemma keyval_of_n vp sfx : gP s (fun v => FP (value_nodes v)) vp -> gP s (pair_n Pnode) (keyval_of vp sfx).
  Proof.
    intros Hv i x i' At E.
    apply keyval_of_ok in E as (kp & path & k & j & b & j1 & pre & j2 & v & j3 & suf & E0 & Pk & E1 & E2 & E3 & _ & ->).
    destruct (pop_key_n _ _ _ _ (key_n _ _ _ At E0) Pk) as [Hpath Hk].
    at_next At E0. at_next A E1. at_next A0 E2.
    unfold pair_n; cbn [fst snd]. repeat split; [exact Hpath|exact Hk|].
    rewrite item_nodes_value, value_nodes_decorate. exact (Hv _ _ _ A1 E3).
  Qed.

  (* ---- values --------------------------------------------------------------------------------------------------------- *)
  Definition body_n (v : value) : Prop := FP (sub_nodes v) /\ exempt v = false.

  Lemma sub_nodes_apply_raw v sp : sub_nodes (apply_raw v sp) = sub_nodes v.
  Proof. destruct v; reflexivity. Qed.
  Lemma exempt_apply_raw v sp : exempt (apply_raw v sp) = exempt v.
  Proof. destruct v; reflexivity. Qed.
  Lemma absv_apply_raw' v sp : absv (apply_raw v sp) = absv v.
  Proof. apply absv_apply_raw. Qed.

  Section Knot.
    Variable value_rec : parser value.
    Hypothesis Hm : mono value_rec.
    Hypothesis Hu : uP value_rec.
    Hypothesis Hs : vsound_at value_rec.
    Hypothesis Hn : gP s (fun v => FP (value_nodes v)) value_rec.

    Lemma array_value_n : gP s (fun it => FP (item_nodes it)) (array_value value_rec).
    Proof.
      intros i it i' At E. unfold array_value in E. binds E. apply ret_inv in E as [-> ->].
      at_next At E0. rewrite item_nodes_value, value_nodes_decorate. exact (Hn _ _ _ A E1).
    Qed.
    Lemma array_values_n : gP s body_n (array_values value_rec).
    Proof.
      intros i v i' At E. unfold array_values in E. binds E. destruct a as [c|].
      - apply ret_inv in E as [-> ->]. split; [constructor|reflexivity].
      - binds E. apply ret_inv in E as [-> ->]. apply peek_inv in E0 as (-> & _).
        split; [|reflexivity]. cbn [sub_nodes]. apply Forall_flat_map.
        eapply (gP_separated0 s (fun it => FP (item_nodes it)) (array_value value_rec) (byte_ ARRAY_SEP));
          [apply array_value_mono, Hm|apply array_value_uP, Hu|np|up|apply array_value_n|exact At|exact E1].
    Qed.
    Lemma array_n : gP s body_n (array value_rec).
    Proof.
      intros i v i' At E. unfold array in E. binds E. apply ret_inv in E as [-> ->]. apply cut_err_inv in E1.
      at_next At E0. exact (array_values_n _ _ _ A E1).
    Qed.

    Lemma inline_keyval_n : gP s (pair_n Pnode) (inline_keyval value_rec).
    Proof. rewrite inline_keyval_of. apply keyval_of_n, Hn. Qed.

    Lemma inline_body_n : gP s body_n (inline_body value_rec).
    Proof.
      intros i v i' At E. unfold inline_body in E. apply try_map_inv in E as ([kv p] & E & Gt).
      unfold inline_kvs in E. binds E. apply ret_inv in E as [X ->]. inversion X; subst kv p. clear X.
      assert (Hp : Forall (pair_n Pnode) a).
      { eapply (gP_separated0 s (pair_n Pnode) (inline_keyval value_rec) (byte_ INLINE_TABLE_SEP));
          [apply inline_keyval_mono, Hm|apply inline_keyval_uP, Hu|np|up|apply inline_keyval_n|exact At|exact E0]. }
      destruct (table_from_pairs_n Pnode _ _ _ Hp Gt) as (H1 & H2 & _). split; assumption.
    Qed.
    Lemma inline_table_n : gP s body_n (inline_table value_rec).
    Proof.
      intros i v i' At E. rewrite inline_table_eq in E. binds E. apply ret_inv in E as [-> ->]. apply cut_err_inv in E1.
      at_next At E0. exact (inline_body_n _ _ _ A E1).
    Qed.

    Lemma gP_scalar_n {A} (p : parser A) (f : A -> scalar) : gP s body_n (pmap (fun x => scalar_value (f x)) p).
    Proof. intros i v i' At E. apply pmap_inv in E as (a & _ & ->). split; [constructor|reflexivity]. Qed.

    Lemma value_body_n : gP s body_n (value_body value_rec).
    Proof.
      intros i v i' At E. unfold value_body in E. apply bind_inv in E as (b & j & E0 & E). apply context_inv, peek_inv in E0 as (-> & _).
      revert i v i' At E. change (gP s body_n (GrammarValueTok.value_arm value_rec b)).
      unfold GrammarValueTok.value_arm, NumbersRT_Value.number_arm.
      repeat match goal with |- gP _ _ (if ?c then _ else _) => destruct c end;
        repeat apply gP_context; repeat apply gP_alt; try apply gP_scalar_n; try apply gP_fail.
      - apply gP_check_recursion, array_n.
      - apply gP_check_recursion, inline_table_n.
    Qed.

    Lemma value_step_n : gP s (fun v => FP (value_nodes v)) (value_step value_rec).
    Proof.
      intros i v i' At E. pose proof E as E'. apply value_step_exact in E as (v0 & E & ->).
      destruct (value_body_n _ _ _ At E) as [Hsub Hex].
      pose proof (value_body_progress _ Hm _ _ _ E) as G. pose proof (value_body_mono _ Hm _ _ _ E) as (t & R & Pq & _).
      assert (Hlt : (pos i < pos i')%N).
      { destruct t as [|b t]; [rewrite R in G; cbn in G; lia|cbn [length] in Pq; lia]. }
      rewrite value_nodes_eq, sub_nodes_apply_raw. apply Forall_app. split; [|exact Hsub].
      unfold own_node. rewrite exempt_apply_raw, Hex. constructor; [|constructor].
      rewrite (value_span_apply_raw v0 _ _ Hlt). cbn [Pnode].
      exact (sound_reparse s _ _ _ _ (value_step_sound _ Hs) (at_cursor _ At) E').
    Qed.
  End Knot.

  Lemma value_f_n n : gP s (fun v => FP (value_nodes v)) (value_f n).
  Proof.
    induction n as [|n IH]; [intros i v i' _ E; discriminate|].
    change (value_f (S n)) with (value_step (value_f n)).
    apply value_step_n; [apply value_f_all|apply value_f_uP|apply value_f_sound|exact IH].
  Qed.
  Lemma value_n : gP s (fun v => FP (value_nodes v)) value_.
  Proof. intros i v i' At E. eapply value_f_n; eauto. Qed.

  (* ---- document lines ---------------------------------------------------------------------------------------------------- *)
  Lemma parse_keyval_n : gP s (pair_n Pnode) parse_keyval.
  Proof. rewrite parse_keyval_of. apply keyval_of_n, value_n. Qed.

  Definition stN (q : pstate -> parser pstate) : Prop :=
    forall st i st' i', at_ s i -> q st i = Ok st' i' -> st_n Pnode st -> st_n Pnode st'.

  Lemma keyval_stN : stN keyval.
  Proof.
    intros st i st' i' At E Hst. unfold keyval in E. apply try_map_inv in E as ([path [k v]] & E & Gt).
    apply lift_state_ok in Gt. destruct (parse_keyval_n _ _ _ At E) as (H1 & H2 & H3). cbn [fst snd] in *.
    eapply on_keyval_sp_n; eauto.
  Qed.
  Lemma header_stN ia : stN (header ia).
  Proof.
    intros st i st' i' At E Hst. rewrite header_eq in E. apply try_map_inv in E as ([[h sp] t] & E & Gt).
    apply lift_state_ok in Gt. unfold header_syntax in E. cbv zeta in E. unfold pair_ in E. binds E.
    apply ret_inv in E as [X ->]. inversion X; subst a a0. clear X.
    apply with_span_inv in E0 as (x' & E0 & S). injection S as <- _. unfold delimited in E0.
    apply bind_inv in E0 as (o & k0 & F0 & E0). apply bind_inv in E0 as (b & k1 & F1 & E0).
    apply bind_inv in E0 as (c & k2 & F2 & E0). apply ret_inv in E0 as [-> ->]. apply cut_err_inv in F1.
    assert (Ak0 : at_ s k0) by (eapply (at_step _ s i _ k0); [| |exact At|exact F0]; destruct ia; [np|np|up|up]).
    eapply on_header_n; [exact Hst|exact (key_n _ _ _ Ak0 F1)|exact Gt].
  Qed.
  Lemma on_ws_stN {A} (p : parser A) : stN (fun st => pmap (on_ws st) (span_ p)).
  Proof. intros st i st' i' At E Hst. apply pmap_inv in E as (sp & E & ->). apply st_n_on_ws, Hst. Qed.

  Lemma document_n st i' : utf8_valid_b s = true -> document (new_input s) = Ok st i' -> st_n Pnode st.
  Proof.
    intros V E. pose proof (at_new s V) as A0.
    apply (document_stI (fun i st => at_ s i /\ st_n Pnode st)) in E; [apply E| | | | | |].
    - apply at_stI; [apply parse_ws_mono|apply parse_ws_uP|apply (on_ws_stN ws)].
    - apply at_stI; [apply parse_newline_mono|apply parse_newline_uP|apply (on_ws_stN newline)].
    - apply at_stI; [apply parse_comment_mono|apply parse_comment_uP|apply (on_ws_stN (comment ;;; context line_ending))].
    - apply at_stI; [apply keyval_mono|apply keyval_uP|apply keyval_stN].
    - intro ia. apply at_stI; [intro; apply header_mono|apply header_uP|apply header_stN].
    - intros o j E0. split; [|apply st_n_new]. eapply (at_step (opt (lit bom))); [np|apply uP_opt, lit_bom_uP|exact A0|exact E0].
  Qed.
End S.

(* C14, re-parsing: every key of the document is spelled by the slice at its repr; every value node written as a
   value re-parses, from the slice at its span, to a value with the same data *)
Theorem reparse_all s d :
  utf8_valid_b s = true -> parse_document s = POk d -> Forall (Pnode s) (tbl_nodes (doc_root d)).
Proof.
  intros V H. apply parse_document_run in H as (fin & i & st' & E & R & F & ->). pose proof (document_n s fin i V E) as Hn.
  cbn [doc_root]. apply (finalize_n _ _ _ Hn F).
Qed.

(* an example document used by Props/C14spans.v:
   "'\u00e9' = '\u00fc' # \u00f6\n[t]\na.b = { x.y = 1, x.z = [ 2 ] }\n[[t.u]]\nk = 1\n[[t.u]]\n" *)
Definition c14_example : bytes :=
  [x27;xc3;xa9;x27;x20;x3d;x20;x27;xc3;xbc;x27;x20;x23;x20;xc3;xb6;x0a;
   x5b;x74;x5d;x0a;
   x61;x2e;x62;x20;x3d;x20;x7b;x20;x78;x2e;x79;x20;x3d;x20;x31;x2c;x20;x78;x2e;x7a;x20;x3d;x20;x5b;x20;x32;x20;x5d;x20;x7d;x0a;
   x5b;x5b;x74;x2e;x75;x5d;x5d;x0a; x6b;x20;x3d;x20;x31;x0a; x5b;x5b;x74;x2e;x75;x5d;x5d;x0a].
