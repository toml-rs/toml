(* Proofs/TilingCmt.v — C03: the comments of a text (Spec/Norm.v `comments`) along the grammar.
   `cj F t cs`: the text t is a piece of the scanner (from state normal back to state normal, for every
   continuation in F), it does not end inside a comment, and the comments in it are cs.
   Tokens have none (`qt`, Proofs/TilingNormScan.v); ws-comment-newline has the comments written in it;
   the normal form o of `vtext t a o` / `lines_text t l o` has the comments of t. *)
From TV Require Import Base.Prelude Spec.Lex Spec.Syntax Spec.Norm.
From TV Require Proofs.GrammarDocLine.
From TV Require Import Proofs.TilingDefs Proofs.TilingNormScan Proofs.TilingNormStr Proofs.TilingNormTok Proofs.TilingNormDoc.
Require Import Lia.

(* ---- comments of labelled texts ------------------------------------------------------------------------------- *)
Definition ends_cmt (zs : lz) : bool := match rev zs with z :: _ => is_comment (snd z) | [] => false end.

Lemma ends_cmt_snoc a z : ends_cmt (a ++ [z]) = is_comment (snd z).
Proof. unfold ends_cmt. rewrite rev_app_distr. reflexivity. Qed.
Lemma ends_cmt_app a b : b <> [] -> ends_cmt (a ++ b) = ends_cmt b.
Proof. intro H. destruct b as [|z b _] using rev_ind; [congruence|]. rewrite app_assoc, !ends_cmt_snoc. reflexivity. Qed.
Lemma ends_cmt_app_false a b : ends_cmt a = false -> ends_cmt b = false -> ends_cmt (a ++ b) = false.
Proof. intros Ha Hb. destruct b; [rewrite app_nil_r; exact Ha|rewrite ends_cmt_app by discriminate; exact Hb]. Qed.
Lemma ends_cmt_cons z a : a <> [] -> ends_cmt (z :: a) = ends_cmt a.
Proof. intro H. apply (ends_cmt_app [z] a H). Qed.

Lemma comments_of_app b : forall a cur, ends_cmt a = false -> (a = [] -> cur = None) ->
  comments_of (a ++ b) cur = comments_of a cur ++ comments_of b None.
Proof.
  induction a as [|[c l] a IH]; intros cur He Hn.
  - rewrite (Hn eq_refl). reflexivity.
  - cbn [app comments_of]. destruct (is_comment l) eqn:El.
    + apply IH.
      * destruct a; [unfold ends_cmt in He; cbn in He; rewrite El in He; discriminate|rewrite ends_cmt_cons in He by discriminate; exact He].
      * intros ->. unfold ends_cmt in He. cbn in He. congruence.
    + assert (He' : ends_cmt a = false) by (destruct a; [reflexivity|rewrite ends_cmt_cons in He by discriminate; exact He]).
      destruct cur; cbn [app]; [f_equal|]; apply IH; auto.
Qed.

Definition flush (cur : option bytes) : list bytes := match cur with Some c => [rev c] | None => [] end.

Lemma comments_of_quiet b cur : nocmt b -> comments_of b cur = flush cur.
Proof.
  unfold nocmt. revert cur. induction b as [|[c l] b IH]; intros cur H; [reflexivity|]. cbn [forallb snd] in H.
  apply andb_true_iff in H as [Hl Hb]. apply negb_true_iff in Hl. cbn [comments_of]. rewrite Hl.
  destruct cur; rewrite (IH None Hb); reflexivity.
Qed.

Lemma comments_of_quiet_tail b : nocmt b -> forall a cur, comments_of (a ++ b) cur = comments_of a cur.
Proof.
  intros Hb. induction a as [|[c l] a IH]; intro cur.
  - cbn [app]. rewrite comments_of_quiet by exact Hb. destruct cur; reflexivity.
  - cbn [app comments_of]. destruct (is_comment l); [apply IH|]. destruct cur; rewrite IH; reflexivity.
Qed.

Lemma nocmt_ends zs : nocmt zs -> ends_cmt zs = false.
Proof.
  unfold nocmt. destruct zs as [|z zs _] using rev_ind; [reflexivity|]. rewrite forallb_app, ends_cmt_snoc. cbn [forallb]. intro H.
  apply andb_true_iff in H as [_ H]. rewrite andb_true_r in H. apply negb_true_iff in H. exact H.
Qed.

Lemma comments_of_cmt_some rest : forall c x, nocr c ->
  comments_of (tag LComment c ++ rest) (Some x) = comments_of rest (Some (rev c ++ x)).
Proof.
  unfold nocr. induction c as [|b c IH]; intros x H; [reflexivity|]. cbn [forallb] in H. apply andb_true_iff in H as [Hb Hc].
  apply negb_true_iff in Hb. cbn [tag map app comments_of is_comment]. rewrite Hb. fold (tag LComment c). rewrite (IH _ Hc).
  cbn [rev]. rewrite <- app_assoc. reflexivity.
Qed.

Lemma comments_of_cmt b c rest cur : nocr (b :: c) ->
  comments_of (tag LComment (b :: c) ++ rest) cur = comments_of rest (Some (rev (b :: c) ++ match cur with Some x => x | None => [] end)).
Proof.
  intro H. pose proof H as H'. unfold nocr in H'. cbn [forallb] in H'. apply andb_true_iff in H' as [Hb Hc]. apply negb_true_iff in Hb.
  cbn [tag map app comments_of is_comment]. rewrite Hb. fold (tag LComment c). rewrite (comments_of_cmt_some rest c _ Hc).
  cbn [rev]. rewrite <- app_assoc. reflexivity.
Qed.

(* ---- pieces with their comments --------------------------------------------------------------------------------- *)
(* ec = true: the piece may end inside a comment (a line before its line end) *)
Definition cjx (ec : bool) (F : bytes -> Prop) (t : bytes) (cs : list bytes) : Prop :=
  exists zs, txt zs = t /\ piece F zs /\ (ec = false -> ends_cmt zs = false) /\ comments_of zs None = cs.
Notation cj := (cjx false).

Lemma cjx_open ec F t cs : cjx ec F t cs -> cjx true F t cs.
Proof. intros (zs & T & P & _ & C). exists zs. split; [exact T|]. split; [exact P|]. split; [discriminate|exact C]. Qed.

Lemma cjx_weaken ec (F G : bytes -> Prop) t cs : (forall r, G r -> F r) -> cjx ec F t cs -> cjx ec G t cs.
Proof. intros H (zs & T & P & S). exists zs. split; [exact T|]. split; [apply (piece_weaken F G); assumption|exact S]. Qed.

Lemma cjx_any ec (F : bytes -> Prop) t cs : cjx ec anyf t cs -> cjx ec F t cs.
Proof. apply cjx_weaken. intros; exact I. Qed.

Lemma cj_nil F : cj F [] [].
Proof. exists []. split; [reflexivity|]. split; [apply piece_nil|]. split; reflexivity. Qed.

Lemma cj_qt k F t : qt k F t -> cj F t [].
Proof.
  intros (zs & T & P & _ & Q). exists zs. split; [exact T|]. split; [exact P|]. split; [intros _; apply nocmt_ends, Q|].
  apply (comments_of_quiet zs None Q).
Qed.

Lemma cjx_app ec (F1 F2 : bytes -> Prop) t1 t2 c1 c2 :
  cj F1 t1 c1 -> cjx ec F2 t2 c2 -> (forall r, F2 r -> F1 (t2 ++ r)) -> cjx ec F2 (t1 ++ t2) (c1 ++ c2).
Proof.
  intros (z1 & T1 & P1 & E1 & C1) (z2 & T2 & P2 & E2 & C2) H. specialize (E1 eq_refl). exists (z1 ++ z2).
  split; [rewrite txt_app, T1, T2; reflexivity|]. split; [apply (piece_app F1 F2); [assumption|assumption|rewrite T2; exact H]|]. split.
  - intro Hec. apply ends_cmt_app_false; [exact E1|apply E2, Hec].
  - rewrite comments_of_app by (auto). rewrite C1, C2. reflexivity.
Qed.

Lemma cjx_app_any ec (F2 : bytes -> Prop) t1 t2 c1 c2 : cj anyf t1 c1 -> cjx ec F2 t2 c2 -> cjx ec F2 (t1 ++ t2) (c1 ++ c2).
Proof. intros H1 H2. apply (cjx_app ec anyf F2); [assumption|assumption|intros; exact I]. Qed.

(* a quiet piece after a piece that may end in a comment *)
Lemma cjx_quiet_tail k (F1 F2 : bytes -> Prop) t1 t2 c1 : t2 <> [] ->
  cjx true F1 t1 c1 -> qt k F2 t2 -> (forall r, F2 r -> F1 (t2 ++ r)) -> cj F2 (t1 ++ t2) c1.
Proof.
  intros Hne (z1 & T1 & P1 & _ & C1) (z2 & T2 & P2 & _ & Q2) H. exists (z1 ++ z2).
  split; [rewrite txt_app, T1, T2; reflexivity|]. split; [apply (piece_app F1 F2); [assumption|assumption|rewrite T2; exact H]|]. split.
  - intros _. rewrite ends_cmt_app; [apply nocmt_ends, Q2|]. intros ->. apply Hne. rewrite <- T2. reflexivity.
  - rewrite comments_of_quiet_tail by exact Q2. exact C1.
Qed.

(* ---- the comments of a whole text ------------------------------------------------------------------------------- *)
Definition scan (t : bytes) : lz := combine t (labels SNormal t).
Definition cmts (t : bytes) : list bytes := comments_of (scan t) None.

Lemma comments_cmts s : comments s = cmts (drop_bom s).
Proof. reflexivity. Qed.

Lemma piece_scan (F : bytes -> Prop) zs x : piece F zs -> F x -> scan (txt zs ++ x) = zs ++ scan x.
Proof.
  intros P Hx. unfold scan. rewrite (P x Hx). rewrite <- (combine_txt_lab zs) at 3.
  assert (L : length (txt zs) = length (lab zs)) by (unfold txt, lab; rewrite !map_length; reflexivity).
  revert L. generalize (txt zs) (lab zs). intros a. induction a as [|b a IH]; intros l L; destruct l as [|y l]; try discriminate; [reflexivity|].
  cbn [app combine]. f_equal. apply IH. cbn [length] in L. lia.
Qed.

(* a closed piece at the head of a text *)
Lemma cj_cmts (F : bytes -> Prop) p c x : cj F p c -> F x -> cmts (p ++ x) = c ++ cmts x.
Proof.
  intros (zs & T & P & E & C) Hx. unfold cmts. rewrite <- T, (piece_scan F zs x P Hx), comments_of_app by (auto). rewrite C. reflexivity.
Qed.

(* a piece that is the whole text *)
Lemma cjx_cmts ec (F : bytes -> Prop) p c : cjx ec F p c -> F [] -> cmts p = c.
Proof.
  intros (zs & T & P & _ & C) Hx. unfold cmts. pose proof (piece_scan F zs [] P Hx) as E. rewrite !app_nil_r, T in E. rewrite E. exact C.
Qed.

(* ---- trivia ------------------------------------------------------------------------------------------------------- *)
Lemma cj_ws w : ws_tok w -> cj anyf w [].
Proof. intro H. apply (cj_qt CB), qt_ws, H. Qed.

Lemma qt_newline nl : newline_tok nl -> exists zs, txt zs = nl /\ piece anyf zs /\ nocmt zs.
Proof.
  intro H. exists (tag LNormal nl). split; [apply txt_tag|]. split; [apply piece_nq, newline_nq, H|apply nocmt_tag; reflexivity].
Qed.

Lemma cj_newline nl : newline_tok nl -> cj anyf nl [].
Proof.
  intro H. destruct (qt_newline nl H) as (zs & T & P & Q). exists zs. split; [exact T|]. split; [exact P|].
  split; [intros _; apply nocmt_ends, Q|apply (comments_of_quiet zs None Q)].
Qed.

(* a comment: a piece that a line end follows, ending inside the comment *)
Lemma cjx_comment c : comment_tok c -> cjx true lendf c [c].
Proof.
  intro Hc. exists (tag LComment c). split; [apply txt_tag|]. split; [apply piece_comment, Hc|]. split; [discriminate|].
  pose proof (nocrlf_nocr c (comment_nocrlf c Hc)) as Hn. destruct Hc as (u & -> & _).
  pose proof (comments_of_cmt x23 u [] None Hn) as E. rewrite !app_nil_r in E. rewrite E. cbn [comments_of]. rewrite rev_involutive. reflexivity.
Qed.

Lemma cjx_opt_comment c : opt_comment c -> exists cs, cjx true lendf c cs /\ (c = [] -> cs = []).
Proof.
  intros [-> | Hc].
  - exists []. split; [apply (cjx_open false), cj_nil|reflexivity].
  - exists [c]. split; [apply cjx_comment, Hc|]. intros ->. destruct Hc as (u & E & _). discriminate.
Qed.

(* a line end after something that may end in a comment *)
Lemma cjx_nl (F : bytes -> Prop) t cs nl : cjx true lendf t cs -> newline_tok nl -> cj F (t ++ nl) cs.
Proof.
  intros (z1 & T1 & P1 & _ & C1) Hn. destruct (qt_newline nl Hn) as (z2 & T2 & P2 & Q2). exists (z1 ++ z2).
  split; [rewrite txt_app, T1, T2; reflexivity|]. split.
  - apply (piece_weaken anyf); [intros; exact I|]. apply (piece_app lendf anyf); [assumption|assumption|].
    intros r _. rewrite T2. apply lendf_newline, Hn.
  - split.
    + intros _. rewrite ends_cmt_app; [apply nocmt_ends, Q2|]. intros ->. cbn in T2. destruct Hn as [-> | ->]; discriminate.
    + rewrite comments_of_quiet_tail by exact Q2. exact C1.
Qed.

Lemma lf_newline : newline_tok [x0a].
Proof. left. reflexivity. Qed.

(* t and its normal form o are pieces with the same comments *)
Definition D (ec : bool) (F : bytes -> Prop) (t o : bytes) : Prop := exists cs, cjx ec F t cs /\ cjx ec F o cs.

Lemma D_app ec (F1 F2 : bytes -> Prop) t1 t2 o1 o2 :
  D false F1 t1 o1 -> D ec F2 t2 o2 -> (forall r, F2 r -> F1 (t2 ++ r)) -> (forall r, F2 r -> F1 (o2 ++ r)) ->
  D ec F2 (t1 ++ t2) (o1 ++ o2).
Proof.
  intros (c1 & A1 & B1) (c2 & A2 & B2) H1 H2. exists (c1 ++ c2). split; apply (cjx_app ec F1 F2); assumption.
Qed.

Lemma D_app_any ec (F2 : bytes -> Prop) t1 t2 o1 o2 : D false anyf t1 o1 -> D ec F2 t2 o2 -> D ec F2 (t1 ++ t2) (o1 ++ o2).
Proof. intros H1 H2. apply (D_app ec anyf F2); [assumption|assumption|intros; exact I|intros; exact I]. Qed.

Lemma D_qt k F t : qt k F t -> D false F t t.
Proof. intro H. exists []. split; apply (cj_qt k), H. Qed.

Lemma D_any ec (F : bytes -> Prop) t o : D ec anyf t o -> D ec F t o.
Proof. intros (cs & A & B). exists cs. split; apply cjx_any; assumption. Qed.

Lemma D_nil F : D false F [] [].
Proof. exists []. split; apply cj_nil. Qed.

Lemma D_wscn w : wscn_tok w -> D false anyf w (ncr w).
Proof.
  induction 1 as [|b t Hb Ht IH|c nl t Hc Hn Ht IH]; [apply D_nil| |].
  - change (b :: t) with ([b] ++ t). rewrite ncr_app.
    assert (Hw : ws_tok [b]) by (unfold ws_tok, all; cbn [forallb]; rewrite Hb; reflexivity).
    rewrite (ncr_ws [b] Hw). apply (D_app_any false); [apply (D_qt CB), qt_ws, Hw|exact IH].
  - rewrite !ncr_app, (ncr_opt_comment c Hc), (ncr_newline nl Hn). rewrite !app_assoc. apply (D_app_any false); [|exact IH].
    destruct (cjx_opt_comment c Hc) as (cs & Hcs & _). exists cs. split; apply cjx_nl; try assumption. apply lf_newline.
Qed.

(* ---- values -------------------------------------------------------------------------------------------------------- *)
Lemma D_ws w : ws_tok w -> D false anyf w w.
Proof. intro H. apply (D_qt CB), qt_ws, H. Qed.

(* D keeps no account of the kind of a piece *)
Definition DT (_ : kind) (F : bytes -> Prop) (t o : bytes) : Prop := D false F t o.

Lemma D_keyval k p w1 w2 t o :
  key_tok k p -> ws_tok w1 -> ws_tok w2 -> D false qstop t o ->
  D false qstop (k ++ w1 ++ [x3d] ++ w2 ++ t) (k ++ w1 ++ [x3d] ++ w2 ++ o).
Proof. exact (keyval_tiled DT (fun _ _ => D_app false) D_qt k p w1 w2 t o). Qed.

Theorem D_values :
  (forall t a o, vtext t a o -> D false qstop t o)
  /\ (forall vs l o, avtext vs l o -> D false qstop vs o)
  /\ (forall kvs l o, iktext kvs l o -> D false qstop kvs o).
Proof. exact (values_tiled DT (fun _ _ => D_app false) (fun _ => D_any false) (fun _ _ _ _ H => H) D_nil D_qt D_wscn). Qed.

Lemma D_vtext t a o : vtext t a o -> D false qstop t o.
Proof. apply (proj1 D_values). Qed.

(* ---- items and lines ------------------------------------------------------------------------------------------------ *)
Lemma D_open ec F t o : D ec F t o -> D true F t o.
Proof. intros (cs & A & B). exists cs. split; apply (cjx_open ec); assumption. Qed.

Lemma D_opt_comment c : opt_comment c -> D true lendf c c.
Proof. intro H. destruct (cjx_opt_comment c H) as (cs & Hcs & _). exists cs. auto. Qed.

Lemma D_item_end t o w c : D false qstop t o -> ws_tok w -> opt_comment c -> D true lendf (t ++ w ++ c) (o ++ w ++ c).
Proof.
  intros Ht Hw Hc. apply (D_app true qstop lendf); [exact Ht| |intros r Hr; qs|intros r Hr; qs].
  apply (D_app_any true); [apply D_ws, Hw|apply D_opt_comment, Hc].
Qed.

Theorem D_item e l o : item_text e l o -> D true lendf e o.
Proof.
  intros [|c Hc|k p w1 w2 t a o0 w c Hk H1 H2 Hv Hw Hc|t p w c Ht Hw Hc|t p w c Ht Hw Hc].
  - apply (D_open false), D_nil.
  - apply D_opt_comment. right. exact Hc.
  - apply D_item_end; [|exact Hw|exact Hc]. apply (D_keyval k p); [assumption..|apply (D_vtext t a o0 Hv)].
  - apply D_item_end; [apply (D_qt CS), (qt_std_table t p Ht)|exact Hw|exact Hc].
  - apply D_item_end; [apply (D_qt CS), (qt_array_table t p Ht)|exact Hw|exact Hc].
Qed.

Lemma lendf_nil : lendf [].
Proof. left. reflexivity. Qed.

(* the normal form of a document has the comments of the document *)
Theorem lines_cmts t l o : lines_text t l o -> forall w, ws_tok w -> cmts (w ++ t) = cmts (w ++ o).
Proof.
  induction 1 as [|w0 e l o Hw0 He|w0 e l o nl w' t l' o' Hw0 He Hn Hw' _ IH]; intros w Hw; [reflexivity| |].
  - destruct (D_item e l o He) as (cs & A & B).
    assert (At : cjx true lendf (w ++ w0 ++ e) ([] ++ [] ++ cs)) by (apply cjx_app_any; [apply cj_ws, Hw|apply cjx_app_any; [apply cj_ws, Hw0|exact A]]).
    rewrite (cjx_cmts true lendf _ _ At lendf_nil). symmetry. destruct l as [|x l]; cbn [stmt_lf].
    + rewrite app_nil_r.
      assert (Ao : cjx true lendf (w ++ w0 ++ o) ([] ++ [] ++ cs)) by (apply cjx_app_any; [apply cj_ws, Hw|apply cjx_app_any; [apply cj_ws, Hw0|exact B]]).
      apply (cjx_cmts true lendf _ _ Ao lendf_nil).
    + assert (Ao : cj anyf (w ++ w0 ++ o ++ [x0a]) ([] ++ [] ++ cs))
        by (apply cjx_app_any; [apply cj_ws, Hw|apply cjx_app_any; [apply cj_ws, Hw0|apply cjx_nl; [exact B|apply lf_newline]]]).
      apply (cjx_cmts false anyf _ _ Ao I).
  - destruct (D_item e l o He) as (cs & A & B).
    assert (At : cj anyf (w ++ w0 ++ e ++ nl) ([] ++ [] ++ cs))
      by (apply cjx_app_any; [apply cj_ws, Hw|apply cjx_app_any; [apply cj_ws, Hw0|apply cjx_nl; assumption]]).
    assert (Ao : cj anyf (w ++ w0 ++ o ++ [x0a]) ([] ++ [] ++ cs))
      by (apply cjx_app_any; [apply cj_ws, Hw|apply cjx_app_any; [apply cj_ws, Hw0|apply cjx_nl; [exact B|apply lf_newline]]]).
    replace (w ++ w0 ++ e ++ nl ++ w' ++ t) with ((w ++ w0 ++ e ++ nl) ++ w' ++ t) by (rewrite <- !app_assoc; reflexivity).
    replace (w ++ w0 ++ o ++ [x0a] ++ w' ++ o') with ((w ++ w0 ++ o ++ [x0a]) ++ w' ++ o') by (rewrite <- !app_assoc; reflexivity).
    rewrite (cj_cmts anyf _ _ _ At I), (cj_cmts anyf _ _ _ Ao I), (IH w' Hw'). reflexivity.
Qed.

(* C03: normalising a document keeps its comments *)
Theorem normalize_cmts s w t l o : drop_bom s = w ++ t -> ws_tok w -> lines_text t l o -> comments s = cmts (normalize s).
Proof.
  intros Es Hw Hl. rewrite (norm_lines s w t l o Es Hw Hl), comments_cmts, Es. apply (lines_cmts t l o Hl w Hw).
Qed.

(* ---- the parts of a line around its key path (for Proofs/PrintBackD*.v) ---------------------------------------------- *)
Lemma cj_trail w c : ws_tok w -> opt_comment c ->
  exists ct, cj anyf ((w ++ c) ++ [x0a]) ct /\ forall r, qstop (((w ++ c) ++ [x0a]) ++ r).
Proof.
  intros Hw Hc. destruct (cjx_opt_comment c Hc) as (cs & Hcs & _). exists ([] ++ cs). split.
  - apply cjx_nl; [|apply lf_newline]. apply cjx_app_any; [apply cj_ws, Hw|exact Hcs].
  - intro r. pose proof lf_newline as Hn. assert (Hl : lendf ([x0a] ++ r)) by (apply lendf_newline, Hn). qs.
Qed.

Lemma cj_kv_rest w1 w2 t a o w c : ws_tok w1 -> ws_tok w2 -> vtext t a o -> ws_tok w -> opt_comment c ->
  exists ct, cj anyf ((w1 ++ [x3d] ++ w2 ++ o ++ w ++ c) ++ [x0a]) ct /\ forall r, qstop (((w1 ++ [x3d] ++ w2 ++ o ++ w ++ c) ++ [x0a]) ++ r).
Proof.
  intros H1 H2 Hv Hw Hc. destruct (D_vtext t a o Hv) as (cv & _ & Bo). destruct (cjx_opt_comment c Hc) as (cs & Hcs & _).
  exists ([] ++ [] ++ [] ++ cv ++ [] ++ cs). split.
  - apply cjx_nl; [|apply lf_newline].
    apply cjx_app_any; [apply cj_ws, H1|]. apply cjx_app_any; [apply (cj_qt CS), qt_byte; reflexivity|]. apply cjx_app_any; [apply cj_ws, H2|].
    apply (cjx_app true qstop lendf); [exact Bo| |intros r Hr; qs]. apply cjx_app_any; [apply cj_ws, Hw|exact Hcs].
  - intro r. qs.
Qed.

(* pending lines: a comment line, a blank line *)
Lemma cj_pend_comment p cp c nl w : cj anyf p cp -> comment_tok c -> newline_tok nl -> ws_tok w ->
  cj anyf (p ++ ncr ((c ++ nl) ++ w)) (cp ++ [c] ++ []).
Proof.
  intros Hp Hc Hn Hw. rewrite !ncr_app, (ncr_comment c Hc), (ncr_newline nl Hn), (ncr_ws w Hw).
  apply cjx_app_any; [exact Hp|]. apply cjx_app_any; [|apply cj_ws, Hw]. apply cjx_nl; [apply cjx_comment, Hc|apply lf_newline].
Qed.

Lemma cj_pend_blank p cp nl w : cj anyf p cp -> newline_tok nl -> ws_tok w -> cj anyf (p ++ ncr (nl ++ w)) (cp ++ [] ++ []).
Proof.
  intros Hp Hn Hw. rewrite !ncr_app, (ncr_newline nl Hn), (ncr_ws w Hw).
  apply cjx_app_any; [exact Hp|]. apply cjx_app_any; [apply cj_newline, lf_newline|apply cj_ws, Hw].
Qed.

Lemma qt_table arr t p : GrammarDocLine.table_tok arr t p -> qt CS qstop t.
Proof. destruct arr; [apply qt_array_table|apply qt_std_table]. Qed.
