(* Proofs/StringsRTDoc.v — the default key token, ` = `, the default value token and a newline
   form a document whose root table holds exactly that one entry. *)
From TV Require Import Base.Prelude Base.Utf8 Base.Winnow Gen.Consts.
From TV Require Import Model.Trivia Model.Strings Model.Tree Model.Parse Model.Document Model.Write.
From TV Require Import Proofs.StringsRTDefs Proofs.StringsRTBase Proofs.StringsRTWrite Proofs.StringsRTEsc.
From TV Require Import Proofs.StringsRTBasic Proofs.StringsRTQuotes Proofs.StringsRTMlLit Proofs.StringsRTMlBasic.
From TV Require Import Proofs.StringsRTTop.
Require Import Lia ZifyBool ZifyN ZifyNat.

(* ---- small parser facts -------------------------------------------------------------------------- *)
Lemma ws_one R p d : stops (in_class WSCHAR) R ->
  ws (mkIn (x20 :: R) p d) = Ok [x20] (mkIn R (p + 1)%N d).
Proof.
  intro H. unfold ws, unchecked_utf8, take_while0.
  pose proof (take_while_yes 0 (in_class WSCHAR) [x20] R p d eq_refl H (Nat.le_0_l _)) as Ht.
  cbn [app] in Ht. rewrite Ht. reflexivity.
Qed.

(* the first byte of a key token *)
Definition key_head (b : byte) : bool :=
  byte_eqb b x22 || byte_eqb b x27 || in_class UNQUOTED_CHAR b.

Lemma key_head_facts b : key_head b = true ->
  in_class WSCHAR b = false /\ byte_eqb b xef = false /\ byte_eqb b COMMENT_START_SYMBOL = false /\
  byte_eqb b STD_TABLE_OPEN = false /\ byte_eqb b LF = false /\ byte_eqb b CR = false.
Proof.
  intro H. unfold key_head in H. unfold COMMENT_START_SYMBOL, STD_TABLE_OPEN.
  pose proof (b2n_lt b). byten. repeat split; lia.
Qed.

Lemma key_token_head k tk : write_key KDefault k = Some tk -> exists b tk', tk = b :: tk' /\ key_head b = true.
Proof.
  intro H. destruct (write_key_token k KDefault tk H) as [|Hne Hc|_].
  - unfold basic_token. do 2 eexists. split; reflexivity.
  - destruct k as [|b k']; [congruence|]. exists b, k'. split; [reflexivity|].
    cbn [forallb] in Hc. apply andb_true_iff in Hc as [Hb _].
    unfold key_head. rewrite Hb. apply orb_true_r.
  - unfold literal_token. do 2 eexists. split; reflexivity.
Qed.

(* ---- key.rs: key_part and key on `<token> = ...` --------------------------------------------------- *)
Definition the_key (k tk : bytes) (p : N) : key :=
  mkKey k (Some (raw_with_span (p, (p + N.of_nat (length tk))%N))) decor_default
        (decor_new (raw_with_span (p, p))
                   (raw_with_span ((p + N.of_nat (length tk))%N, (p + N.of_nat (length tk) + 1)%N))).

Lemma key_part_rt k tk R p d :
  utf8_valid_b k = true -> write_key KDefault k = Some tk -> stops (in_class WSCHAR) R ->
  key_part (mkIn (tk ++ x20 :: R) p d) = Ok (the_key k tk p) (mkIn R (p + N.of_nat (length tk) + 1)%N d).
Proof.
  intros Hu Hw HR. destruct (key_token_head k tk Hw) as [b [tk' [Htk Hb]]].
  destruct (key_head_facts b Hb) as [Hws _].
  unfold key_part.
  assert (H1 : span_ ws (mkIn (tk ++ x20 :: R) p d) = Ok (p, p) (mkIn (tk ++ x20 :: R) p d)).
  { assert (Hst : stops (in_class WSCHAR) (tk ++ x20 :: R)) by (rewrite Htk; exact Hws).
    rewrite (span_ok ws _ _ _ (ws_none _ p d Hst)). reflexivity. }
  rewrite (bind_ok _ _ _ _ _ H1).
  assert (H2 : simple_key (mkIn (tk ++ x20 :: R) p d) = Ok (key_result tk k p) (after tk (x20 :: R) p d)).
  { apply (key_styles_rt k KDefault); auto. reflexivity. }
  rewrite (bind_ok _ _ _ _ _ H2). unfold key_result, after.
  rewrite (bind_ok _ _ _ _ _ (span_ok _ _ _ _ (ws_one R _ d HR))). reflexivity.
Qed.

Definition the_key_fixed (k tk : bytes) (p : N) : key :=
  mkKey k (Some (raw_with_span (p, (p + N.of_nat (length tk))%N)))
        (decor_new (raw_with_span (p, p))
                   (raw_with_span ((p + N.of_nat (length tk))%N, (p + N.of_nat (length tk) + 1)%N)))
        (mkDecor (Some REmpty) (Some REmpty)).

Lemma key_rt k tk R p d :
  utf8_valid_b k = true -> write_key KDefault k = Some tk ->
  key_ (mkIn (tk ++ x20 :: x3d :: R) p d)
  = Ok [the_key_fixed k tk p] (mkIn (x3d :: R) (p + N.of_nat (length tk) + 1)%N d).
Proof.
  intros Hu Hw. unfold key_.
  assert (Hs : separated1 key_part (byte_ DOT_SEP) (mkIn (tk ++ x20 :: x3d :: R) p d)
               = Ok [the_key k tk p] (mkIn (x3d :: R) (p + N.of_nat (length tk) + 1)%N d)).
  { unfold separated1. rewrite (key_part_rt k tk (x3d :: R) p d Hu Hw eq_refl).
    cbn [rest length separated_loop]. rewrite byte_no by reflexivity. reflexivity. }
  rewrite (bind_ok _ _ _ [the_key k tk p] (mkIn (x3d :: R) (p + N.of_nat (length tk) + 1)%N d)).
  2:{ unfold try_map. rewrite (context_ok _ _ _ _ Hs). reflexivity. }
  reflexivity.
Qed.

(* ---- document.rs: parse_keyval on `<key token> = <value token>\n` ---------------------------------- *)
Definition the_value (v tv : bytes) (p2 : N) (pre suf : N * N) : value :=
  VScalar (SString v) (Some (raw_with_span (p2, (p2 + N.of_nat (length tv))%N)))
          (decor_new (raw_with_span pre) (raw_with_span suf)).

Definition line (tk tv : bytes) : bytes := tk ++ x20 :: x3d :: x20 :: tv ++ [x0a].

Lemma line_trailing_lf p d : line_trailing (mkIn [x0a] p d) = Ok (p, p) (mkIn [] (p + 1)%N d).
Proof.
  unfold line_trailing, terminated.
  assert (H : (ws ;;; opt comment) (mkIn [x0a] p d) = Ok None (mkIn [x0a] p d)).
  { rewrite (bind_ok _ _ _ _ _ (ws_none [x0a] p d eq_refl)).
    eapply opt_bt. unfold comment. eapply bind_bt. apply byte_no. reflexivity. }
  rewrite (bind_ok _ _ _ _ _ (span_ok _ _ _ _ H)). cbn [pos].
  unfold line_ending. rewrite (bind_ok _ _ _ _ _ (alt_ok _ _ _ _ _ (newline_lf [] p d))). reflexivity.
Qed.

Lemma parse_keyval_rt k v tk tv p d :
  utf8_valid_b k = true -> utf8_valid_b v = true ->
  write_key KDefault k = Some tk -> write_string StDefault v = Some tv ->
  let p1 := (p + N.of_nat (length tk) + 1)%N in
  let p2 := (p1 + 1 + 1)%N in
  let p3 := (p2 + N.of_nat (length tv))%N in
  parse_keyval (mkIn (line tk tv) p d)
  = Ok ([], (the_key_fixed k tk p, IValue (the_value v tv p2 ((p1 + 1)%N, p2) (p3, p3))))
       (mkIn [] (p3 + 1)%N d).
Proof.
  intros Hk Hv Hwk Hwv p1 p2 p3. unfold parse_keyval, line.
  rewrite (bind_ok _ _ _ _ _ (key_rt k tk (x20 :: tv ++ [x0a]) p d Hk Hwk)). fold p1.
  assert (Hq : quote_headed tv).
  { unfold write_string in Hwv.
    apply (quote_headed_token v (vmetrics_of v) StDefault tv Hwv). }
  assert (Hstop : stops (in_class WSCHAR) (tv ++ [x0a])).
  { destruct Hq as [b [t' [-> Hb]]]. cbn [app stops]. unfold QUOTATION_MARK, APOSTROPHE in Hb. byten. lia. }
  assert (Hval : value_ (mkIn (tv ++ [x0a]) p2 d) = Ok (string_value v tv p2) (after tv [x0a] p2 d)).
  { apply value_of_string; [exact Hq|]. apply (value_styles_rt v StDefault); auto. cbn. auto. }
  assert (Hrest : cut_err (context (byte_ KEYVAL_SEP) ;;;
                           pre <- span_ ws ;; vv <- value_ ;; suf <- context line_trailing ;; ret (pre, vv, suf))
                    (mkIn (x3d :: x20 :: tv ++ [x0a]) p1 d)
                  = Ok (((p1 + 1)%N, p2), string_value v tv p2, (p3, p3)) (mkIn [] (p3 + 1)%N d)).
  { apply cut_err_ok. unfold KEYVAL_SEP.
    rewrite (bind_ok _ _ _ _ _ (context_ok _ _ _ _ (byte_yes x3d _ p1 d))).
    rewrite (bind_ok _ _ _ _ _ (span_ok _ _ _ _ (ws_one _ (p1 + 1)%N d Hstop))). cbn [pos]. fold p2.
    rewrite (bind_ok _ _ _ _ _ Hval). unfold after. fold p3.
    rewrite (bind_ok _ _ _ _ _ (context_ok _ _ _ _ (line_trailing_lf p3 d))). reflexivity. }
  rewrite (bind_ok _ _ _ _ _ Hrest). reflexivity.
Qed.

(* ---- state.rs: the first key/value of the root table ------------------------------------------------- *)
Lemma on_keyval_first st kk vv dec pos sp :
  st_current st = Tbl [] dec false false pos sp ->
  exists st', on_keyval st [] kk (IValue vv) = COk st' /\
    st_root st' = st_root st /\ st_path st' = st_path st /\ st_is_array st' = st_is_array st /\
    exists k', t_items (st_current st') = [(k', IValue vv)] /\ k_key k' = k_key kk.
Proof.
  intro Hc. unfold on_keyval. rewrite Hc. cbn [t_span item_span].
  destruct sp as [e|]; [destruct (value_span vv) as [vs|]|]; cbn;
    (eexists; split; [reflexivity|]; cbn; repeat split; eexists; split; reflexivity).
Qed.

(* ---- document.rs: the whole document ------------------------------------------------------------------ *)
Lemma doc_line_keyval st tk tv k v :
  utf8_valid_b k = true -> utf8_valid_b v = true ->
  write_key KDefault k = Some tk -> write_string StDefault v = Some tv ->
  forall dec tpos sp, st_current st = Tbl [] dec false false tpos sp ->
  exists st' pe, doc_line st (mkIn (line tk tv) 0%N 0) = Ok st' (mkIn [] pe 0) /\
    st_root st' = st_root st /\ st_path st' = st_path st /\
    exists k' rp dc, t_items (st_current st') = [(k', IValue (VScalar (SString v) rp dc))] /\ k_key k' = k.
Proof.
  intros Hk Hv Hwk Hwv dec tpos sp Hc.
  destruct (key_token_head k tk Hwk) as [b [tk' [Htk Hb]]].
  destruct (key_head_facts b Hb) as [_ [_ [H1 [H2 [H3 H4]]]]].
  pose proof (parse_keyval_rt k v tk tv 0%N 0 Hk Hv Hwk Hwv) as Hpk. cbv zeta in Hpk.
  match type of Hpk with _ = Ok ([], (?kk, IValue ?vv)) (mkIn [] ?pe 0) =>
    destruct (on_keyval_first st kk vv dec tpos sp Hc) as [st1 [Hok [Hr [Hp [Ha [k' [Hitems Hkk]]]]]]];
    set (iend' := mkIn [] pe 0) in *;
    exists (on_ws st1 (pe, pe)), pe; fold iend'
  end.
  split.
  - unfold doc_line.
    assert (Hpeek : peek any (mkIn (line tk tv) 0%N 0) = Ok b (mkIn (line tk tv) 0%N 0)).
    { unfold line. rewrite Htk. cbn [app]. eapply peek_ok. apply any_cons. }
    rewrite (bind_ok _ _ _ _ _ Hpeek). rewrite H1, H2, H3, H4. cbn [orb].
    assert (Hkv : cut_err (keyval st) (mkIn (line tk tv) 0%N 0) = Ok st1 iend').
    { apply cut_err_ok. unfold keyval, try_map, on_keyval_sp. rewrite Hpk. rewrite Hok.
      cbn [set_dotted_spans]. destruct st1; reflexivity. }
    rewrite (bind_ok _ _ _ _ _ Hkv).
    unfold parse_ws.
    rewrite (pmap_ok _ _ _ _ _ (span_ok ws iend' [] iend' (ws_none [] _ 0 I))). reflexivity.
  - split; [exact Hr|]. split; [exact Hp|].
    unfold the_value in Hitems. cbn [on_ws st_current]. eauto.
Qed.

Theorem in_document k v tk tv :
  utf8_valid_b k = true -> utf8_valid_b v = true ->
  write_key KDefault k = Some tk -> write_string StDefault v = Some tv ->
  exists d kk rp dc,
    parse_document (tk ++ [x20; x3d; x20] ++ tv ++ [x0a]) = POk d /\
    t_items (doc_root d) = [(kk, IValue (VScalar (SString v) rp dc))] /\ k_key kk = k.
Proof.
  intros Hk Hv Hwk Hwv.
  change (tk ++ [x20; x3d; x20] ++ tv ++ [x0a]) with (line tk tv).
  destruct (key_token_head k tk Hwk) as [b [tk' [Htk Hb]]].
  destruct (key_head_facts b Hb) as [Hws [Hef _]].
  set (st0 := on_ws state_new (0, 0)%N).
  destruct (doc_line_keyval st0 tk tv k v Hk Hv Hwk Hwv decor_default None (Some (0, 0)%N) eq_refl)
    as [st' [pe [Hline [Hroot [Hpath [k' [rp [dc [Hitems Hkk]]]]]]]]].
  assert (Hne : exists n, length (line tk tv) = S n).
  { unfold line. rewrite Htk. cbn [app length]. eauto. }
  destruct Hne as [n Hn].
  assert (Hdoc : document (mkIn (line tk tv) 0%N 0) = Ok st' (mkIn [] pe 0)).
  { unfold document.
    assert (Hbom : opt (lit bom) (mkIn (line tk tv) 0%N 0) = Ok None (mkIn (line tk tv) 0%N 0)).
    { eapply opt_bt. apply lit_no. unfold line, bom. rewrite Htk. cbn [app strip_prefix].
      rewrite byte_eqb_sym, Hef. reflexivity. }
    rewrite (bind_ok _ _ _ _ _ Hbom).
    assert (Hpws : parse_ws state_new (mkIn (line tk tv) 0%N 0) = Ok st0 (mkIn (line tk tv) 0%N 0)).
    { assert (Hws0 : ws (mkIn (line tk tv) 0%N 0) = Ok [] (mkIn (line tk tv) 0%N 0)).
      { apply ws_none. unfold line. rewrite Htk. exact Hws. }
      unfold parse_ws. rewrite (pmap_ok _ _ _ _ _ (span_ok _ _ _ _ Hws0)). reflexivity. }
    rewrite (bind_ok _ _ _ _ _ Hpws).
    assert (Hloop : doc_loop (S (length (line tk tv))) st0 (mkIn (line tk tv) 0%N 0) = Ok st' (mkIn [] pe 0)).
    { rewrite Hn. cbn [doc_loop]. rewrite Hline. cbn [rest]. rewrite Hn. cbn [length Nat.eqb].
      unfold doc_line. rewrite (bind_bt _ _ _ err0 (mkIn [] pe 0)); [reflexivity|].
      eapply peek_bt. apply any_nil. }
    unfold bind at 1. cbn [rest]. rewrite Hloop.
    rewrite (bind_ok _ _ _ _ _ (eof_nil pe 0)). reflexivity. }
  assert (Hall : parse_all document (line tk tv) = Done st').
  { unfold parse_all, new_input. rewrite (bind_ok _ _ _ _ _ Hdoc).
    rewrite (bind_ok _ _ _ _ _ (eof_nil pe 0)). reflexivity. }
  unfold parse_document. rewrite Hall.
  unfold finalize_table. rewrite Hpath. cbn [st0 on_ws st_path state_new pop_key rev].
  rewrite Hroot. cbn [st0 on_ws st_root state_new tbl_is_empty tbl_new t_items forallb].
  eexists. exists k', rp, dc. split; [reflexivity|]. cbn [doc_root st_root]. auto.
Qed.
