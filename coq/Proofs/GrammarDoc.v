(* Proofs/GrammarDoc.v — C01/C02 layers L2 + L3 for whole documents: the loop of document.rs
   (`doc_line`, `doc_loop`, `document`, `parse_document`) against toml = expression *( newline
   expression ) of Spec/Syntax.v, statement by statement through C09's simulation of the parse
   state (Proofs/GrammarDocBase.v), in both directions. *)
From TV Require Import Base.Prelude Base.Winnow Spec.Abnf Spec.Lex Spec.Defs Spec.Syntax.
From TV Require Import Model.Tree Model.Document.

From TV Require Import Proofs.DefsEquivBase Proofs.DefsEquivSim Proofs.DefsEquivMain.
From TV Require Import Proofs.LexEquivBase Proofs.LexEquivTrivia Proofs.GrammarBase
                       Proofs.GrammarValueSound Proofs.GrammarValueComplete
                       Proofs.GrammarDocBase Proofs.GrammarDocLine.
From TV Require Import Proofs.DocumentOps.
Require Import Lia ZifyBool ZifyN ZifyNat.

(* ================================================================================================ *)
(* statements: what a line adds to the spec state                                                   *)
(* ================================================================================================ *)
Definition lsim (S S1 : sstate value) (l : list astmt) : Prop :=
  spec_fold false (dstate S) (map stmt_den l) = ROk (dstate S1)
  /\ forallb stmt_ok l = true /\ forallb stmt_within l = true.

Lemma lsim_nil S : lsim S S [].
Proof. repeat split. Qed.

Lemma lsim_app S S1 S2 l1 l2 : lsim S S1 l1 -> lsim S1 S2 l2 -> lsim S S2 (l1 ++ l2).
Proof.
  intros (F1 & O1 & W1) (F2 & O2 & W2). split; [|split].
  - rewrite map_app, spec_fold_app, F1. exact F2.
  - rewrite forallb_app, O1, O2. reflexivity.
  - rewrite forallb_app, W1, W2. reflexivity.
Qed.

Lemma lsim_one S S1 m s :
  spec_step false S m = ROk S1 -> stmt_map absv m = stmt_den s -> stmt_ok s = true -> stmt_within s = true ->
  lsim S S1 [s].
Proof.
  intros E Hm Hok Hwi. split; [|cbn [forallb]; rewrite Hok, Hwi; auto].
  cbn [map]. rewrite spec_fold_cons, <- Hm, (step_to_data false S m S1 E). reflexivity.
Qed.

Lemma ltb_true a b : a < b -> Nat.ltb a b = true.
Proof. intro H. apply Nat.ltb_lt, H. Qed.

(* ================================================================================================ *)
(* one iteration of the document loop                                                               *)
(* ================================================================================================ *)
Lemma parse_ws_inv st i st1 i1 : parse_ws st i = Ok st1 i1 ->
  exists w sp, ws_tok w /\ splits i w i1 /\ stops wschar (rest i1) /\ st1 = on_ws st sp.
Proof.
  unfold parse_ws. intro H. apply pmap_inv in H as (sp & H & ->). apply span_ws_inv in H as (w & Hw & S & Hs). eauto 10.
Qed.

Lemma parse_ws_complete st i w r : rest i = w ++ r -> ws_tok w -> stops wschar r ->
  exists sp, parse_ws st i = Ok (on_ws st sp) (adv w i).
Proof.
  intros H Hw Hr. unfold parse_ws. eexists. rewrite (pmap_ok _ _ _ _ _ (span_ws_complete i w r H Hw Hr)). reflexivity.
Qed.

Lemma doc_line_empty st i : rest i = [] -> fails (doc_line st) i.
Proof. intro H. unfold fails. rewrite doc_line_unfold. apply bind_fails, peek_fails, any_fails, H. Qed.

(* ---- soundness of one line -------------------------------------------------------------------- *)
Lemma keyval_sound st i st1 i1 S : keyval st i = Ok st1 i1 -> depth i = 0 -> Inv st S ->
  exists w0 e l le S1, ws_tok w0 /\ item_tok e l /\ splits i (w0 ++ e ++ le) i1 /\ lend le (rest i1)
                       /\ Inv st1 S1 /\ lsim S S1 l.
Proof.
  unfold keyval. intros H Hd HI. apply try_map_inv in H as ([path [k it]] & H & Hst).
  apply parse_keyval_sound in H as (w0 & t & p & a & w & c & le & Hw0 & Ht & Hw & Hc & Sp & Hl & Hlen & [Hp (v & Hit & Hv)]).
  cbn [fst snd] in Hp, Hit, Hv. subst it. rewrite Hd in Hv.
  destruct (on_keyval_sp st path k (IValue v)) as [st'| |] eqn:E; try discriminate. cbn [lift_state] in Hst. injection Hst as <-.
  destruct (kv_step_sound st S path k v st' HI E) as (S1 & Es & HI1).
  exists w0, (t ++ w ++ c), [SKeyVal p a], le, S1. split; [exact Hw0|]. split; [apply it_keyval; assumption|].
  split; [exact Sp|]. split; [exact Hl|]. split; [exact HI1|].
  destruct Hv as (Ha & Hok & Hwi & _).
  apply (lsim_one S S1 _ (SKeyVal p a) Es (kv_stmt_den path k v p a Hp Ha)); cbn [stmt_ok stmt_within]; [exact Hok|].
  rewrite (ltb_true _ _ Hlen), Hwi. reflexivity.
Qed.

Lemma header_sound arr st i st1 i1 S : header arr st i = Ok st1 i1 -> Inv st S ->
  exists e l le S1, item_tok e l /\ splits i (e ++ le) i1 /\ lend le (rest i1) /\ Inv st1 S1 /\ lsim S S1 l.
Proof.
  rewrite header_unfold. intros H HI. apply try_map_inv in H as ([[kp sp] tr] & H & Hst).
  apply header_text_sound in H as (t & p & w & c & le & Ht & Hw & Hc & Sp & Hl & Hp & Hlen & Hne).
  destruct (on_header arr st kp tr sp) as [st'| |] eqn:E; try discriminate. cbn [lift_state] in Hst. injection Hst as <-.
  destruct (pop_key_nonempty kp Hne) as (pre & k & Ep). pose proof (pop_key_some _ _ _ Ep) as Ekp. subst kp.
  destruct (hdr_step_sound arr st S pre k tr sp st' HI E) as (S1 & Es & HI1).
  rewrite keys_app in Hp. cbn [keys map] in Hp. fold (keys pre) in Hp.
  exists (t ++ w ++ c), [if arr then SArrHeader p else SHeader p], le, S1.
  split; [destruct arr; [apply it_arr|apply it_std]; assumption|]. split; [exact Sp|]. split; [exact Hl|]. split; [exact HI1|].
  rewrite Hp in Es.
  apply (lsim_one S S1 _ _ Es (hdr_stmt_den arr p)); destruct arr; cbn [stmt_ok stmt_within]; try reflexivity;
    apply ltb_true; rewrite <- Hp, app_length; unfold keys; rewrite map_length; rewrite app_length in Hlen; exact Hlen.
Qed.

Lemma line_read_sound st i st1 i1 S : line_read st i i1 st1 -> depth i = 0 -> Inv st S ->
  exists w0 e l le S1, ws_tok w0 /\ item_tok e l /\ splits i (w0 ++ e ++ le) i1 /\ lend le (rest i1)
                       /\ Inv st1 S1 /\ lsim S S1 l.
Proof.
  intros Hr Hd HI. destruct (line_read_parsers _ _ _ _ Hr) as [H|[H|[[arr H]|H]]].
  - unfold parse_comment in H. apply pmap_inv in H as (sp & H & ->).
    apply span_inv in H as (u & H & _). apply bind_inv in H as (x & j1 & H1 & H2).
    apply comment_sound in H1 as (c & Hc & S1 & _). apply context_inv, line_ending_sound in H2 as (le & S2 & Hl).
    exists [], c, [], le, S. split; [reflexivity|]. split; [apply it_comment, Hc|].
    split; [exact (splits_trans _ _ _ _ _ S1 S2)|]. split; [exact Hl|]. split; [apply Inv_on_ws, HI|apply lsim_nil].
  - unfold parse_newline in H. apply pmap_inv in H as (sp & H & ->). apply span_inv in H as (u & H & _).
    apply newline_sound in H as (nl & Hn & S1).
    exists [], [], [], nl, S. split; [reflexivity|]. split; [apply it_blank|]. split; [exact S1|].
    split; [left; exact Hn|]. split; [apply Inv_on_ws, HI|apply lsim_nil].
  - destruct (header_sound arr st i st1 i1 S H HI) as (e & l & le & S1 & He & Sp & Hl & HI1 & Hs).
    exists [], e, l, le, S1. split; [reflexivity|]. auto.
  - apply (keyval_sound st i st1 i1 S H Hd HI).
Qed.

Lemma doc_line_sound st i st1 i1 S : doc_line st i = Ok st1 i1 -> depth i = 0 -> Inv st S ->
  exists w0 e l le w S1,
    ws_tok w0 /\ item_tok e l /\ ws_tok w /\ splits i (w0 ++ e ++ le ++ w) i1
    /\ (newline_tok le \/ (le = [] /\ w = [] /\ rest i1 = []))
    /\ Inv st1 S1 /\ lsim S S1 l.
Proof.
  intros H Hd HI. apply doc_line_read in H as (st0 & j1 & sp & Hr & H3 & ->).
  destruct (line_read_sound st i st0 j1 S Hr Hd HI) as (w0 & e & l & le & S1 & Hw0 & He & Sp & Hl & HI1 & Hs).
  apply span_ws_inv in H3 as (w & Hw & Sw & _).
  exists w0, e, l, le, w, S1. split; [exact Hw0|]. split; [exact He|]. split; [exact Hw|]. split; [|split; [|split; [apply Inv_on_ws, HI1|exact Hs]]].
  - pose proof (splits_trans _ _ _ _ _ Sp Sw) as S'. rewrite <- !app_assoc in S'. exact S'.
  - destruct Hl as [Hn | [-> Hr0]]; [left; exact Hn|right]. destruct Sw as [R E]. rewrite Hr0 in R.
    destruct w; [|discriminate]. cbn [app] in R. split; [reflexivity|]. split; [reflexivity|]. symmetry. exact R.
Qed.

(* ================================================================================================ *)
(* the loop                                                                                         *)
(* ================================================================================================ *)
(* the text read by the loop: complete lines, the last one possibly ended by the end of the text *)
Inductive dlines : bytes -> list astmt -> Prop :=
| dl_nil : dlines [] []
| dl_last w0 e l : ws_tok w0 -> item_tok e l -> dlines (w0 ++ e) l
| dl_cons w0 e l nl w t l' :
    ws_tok w0 -> item_tok e l -> newline_tok nl -> ws_tok w -> dlines t l' ->
    dlines (w0 ++ e ++ nl ++ w ++ t) (l ++ l').

Lemma doc_loop_at_end fuel st i st' i' : rest i = [] -> doc_loop fuel st i = Ok st' i' -> st' = st /\ i' = i.
Proof.
  intros R H. destruct fuel as [|f]; [discriminate|]. cbn [doc_loop] in H.
  destruct (doc_line_empty st i R) as (e & j & F). rewrite F in H. injection H as <- <-. auto.
Qed.

Lemma doc_loop_sound : forall fuel st i st' i' S, doc_loop fuel st i = Ok st' i' -> depth i = 0 -> Inv st S ->
  exists t l S', splits i t i' /\ dlines t l /\ Inv st' S' /\ lsim S S' l.
Proof.
  induction fuel as [|f IH]; intros st i st' i' S H Hd HI; [discriminate|]. cbn [doc_loop] in H.
  destruct (doc_line st i) as [st1 i1|e j|e j|s] eqn:E; try discriminate.
  - destruct (Nat.eqb (length (rest i1)) (length (rest i))); [discriminate|].
    destruct (doc_line_sound st i st1 i1 S E Hd HI) as (w0 & e & l & le & w & S1 & Hw0 & He & Hw & Sp & Hle & HI1 & Hs).
    assert (Hd1 : depth i1 = 0) by (rewrite (splits_depth _ _ _ Sp); exact Hd).
    destruct Hle as [Hn | (-> & -> & R1)].
    + destruct (IH st1 i1 st' i' S1 H Hd1 HI1) as (t & l' & S' & St & Hdl & HI' & Hs').
      exists ((w0 ++ e ++ le ++ w) ++ t), (l ++ l'), S'. split; [exact (splits_trans _ _ _ _ _ Sp St)|].
      split; [|split; [exact HI'|exact (lsim_app _ _ _ _ _ Hs Hs')]].
      replace ((w0 ++ e ++ le ++ w) ++ t) with (w0 ++ e ++ le ++ w ++ t) by (rewrite <- !app_assoc; reflexivity).
      apply dl_cons; assumption.
    + destruct (doc_loop_at_end f st1 i1 st' i' R1 H) as [-> ->].
      exists (w0 ++ e), l, S1. rewrite !app_nil_r in Sp. split; [exact Sp|]. split; [apply dl_last; assumption|]. auto.
  - injection H as <- <-. exists [], [], S. split; [apply splits_nil|]. split; [apply dl_nil|]. split; [exact HI|apply lsim_nil].
Qed.

(* ---- the lines are a toml text ------------------------------------------------------------------- *)
Lemma expression_ws w e l : ws_tok w -> expression_tok e l -> expression_tok (w ++ e) l.
Proof.
  intros Hw He. apply expression_item in He as (w1 & e' & -> & Hw1 & Hi). apply expression_item.
  exists (w ++ w1), e'. split; [apply app_assoc|]. split; [apply ws_tok_app; assumption|exact Hi].
Qed.

Lemma toml_tok_ws w t l : ws_tok w -> toml_tok t l -> toml_tok (w ++ t) l.
Proof.
  intros Hw [e l0 He | e l0 nl t' l' He Hn Ht].
  - apply toml_one, expression_ws; assumption.
  - rewrite app_assoc. apply toml_more; [apply expression_ws; assumption|exact Hn|exact Ht].
Qed.

Lemma item_expression w e l : ws_tok w -> item_tok e l -> expression_tok (w ++ e) l.
Proof. intros Hw He. apply expression_item. exists w, e. auto. Qed.

Lemma dlines_toml t l : dlines t l -> toml_tok t l.
Proof.
  induction 1 as [|w0 e l Hw0 He|w0 e l nl w t l' Hw0 He Hn Hw Hd IH].
  - apply toml_one. apply (ex_blank [] []); [reflexivity|left; reflexivity].
  - apply toml_one, item_expression; assumption.
  - replace (w0 ++ e ++ nl ++ w ++ t) with ((w0 ++ e) ++ nl ++ (w ++ t)) by (rewrite <- !app_assoc; reflexivity).
    apply toml_more; [apply item_expression; assumption|exact Hn|apply toml_tok_ws; assumption].
Qed.

(* ================================================================================================ *)
(* the byte-order mark, document, parse_document                                                    *)
(* ================================================================================================ *)
Lemma strip_bom_cases s : (exists r, s = bom ++ r /\ strip_bom s = r) \/ ((forall r, s <> bom ++ r) /\ strip_bom s = s).
Proof.
  unfold strip_bom, bom. destruct s as [|b0 [|b1 [|b2 r]]]; try (right; split; [intros r0 E; discriminate|reflexivity]).
  destruct (byte_eqb b0 xef) eqn:E0; [|right; split; [intros r0 E; injection E as -> _; discriminate|reflexivity]].
  destruct (byte_eqb b1 xbb) eqn:E1; [|right; split; [intros r0 E; injection E as _ -> _; discriminate|reflexivity]].
  destruct (byte_eqb b2 xbf) eqn:E2; [|right; split; [intros r0 E; injection E as _ _ -> _; discriminate|reflexivity]].
  apply byte_eqb_eq in E0, E1, E2. subst. left. exists r. split; reflexivity.
Qed.

(* what an accepted document is: the statements of some derivation of its text, within the limits,
   valid under the code's resolution of U1, denoting the tree that was built *)
Theorem parse_document_sound s d : parse_document s = POk d ->
  exists stmts, toml_text s stmts /\ forallb stmt_ok stmts = true /\ within_limits stmts = true
                /\ code_run (map stmt_den stmts) = Valid (abs_doc d).
Proof.
  intro H. destruct (parse_document_inv s d H) as (o & i1 & stw & i2 & stl & i3 & st' & Eb & Ew & El & Rend & Ef & ->).
  apply parse_ws_inv in Ew as (w0 & sp & Hw0 & Sw & _ & ->).
  assert (Sb : exists bm, splits (new_input s) bm i1 /\ strip_bom s = w0 ++ rest i2).
  { apply opt_inv in Eb as [(x & -> & Eb) | (-> & -> & (e & j & F))].
    - apply lit_inv in Eb as [_ Sb]. exists bom. split; [exact Sb|]. destruct Sb as [R _]. cbn [new_input rest] in R.
      destruct (strip_bom_cases s) as [(r & Er & ->) | [Hn _]]; [|exfalso; apply (Hn _ R)].
      rewrite Er in R. apply app_inv_head in R. subst r. apply Sw.
    - exists []. split; [apply splits_nil|]. destruct (strip_bom_cases s) as [(r & Er & _) | [_ ->]].
      + exfalso. unfold lit in F. cbn [new_input rest] in F.
        destruct (strip_prefix bom s) eqn:Q; [discriminate|].
        assert (Q' : strip_prefix bom s = Some r) by (apply strip_prefix_spec; exact Er). congruence.
      + apply Sw. }
  destruct Sb as (bm & Sb & Es).
  assert (D2 : depth i2 = 0).
  { rewrite (splits_depth _ _ _ Sw), (splits_depth _ _ _ Sb). reflexivity. }
  destruct (doc_loop_sound _ _ _ _ _ sstate0 El D2 (Inv_on_ws _ _ sp Inv_init)) as (t & l & [T cp] & St & Hdl & HI & (Hf & Hok & Hwi)).
  destruct St as [Rt _]. rewrite Rend, app_nil_r in Rt.
  exists l. split; [|split; [exact Hok|split; [exact Hwi|]]].
  - unfold toml_text. rewrite Es, Rt. apply toml_tok_ws; [exact Hw0|apply dlines_toml, Hdl].
  - destruct (finalize_sim stl T cp HI) as (root' & Ef' & Ha & _). rewrite Ef' in Ef. injection Ef as <-.
    unfold abs_doc. cbn [doc_root finalized st_root]. rewrite Ha.
    unfold code_run, run. change (@sstate0 dval) with (dstate sstate0). rewrite Hf. reflexivity.
Qed.
