(* Proofs/PrintBackTop.v — C03 exactness for documents whose root table holds plain values only
   (class (a) + (b): `key = value` lines with a plain key, comments, blank lines; the values may be
   arrays and inline tables with plain keys, nested).  The condition is decided on the tree.  Such a
   document is a document of sections (Proofs/PrintBackSecTop.v) that has the root section only. *)
From TV Require Import Base.Prelude Spec.Lex Spec.Syntax Spec.Norm.
From TV Require Import Model.Tree Model.Document.
From TV Require Import Proofs.TilingDefs Proofs.TilingNormDoc
                       Proofs.PrintBackBase Proofs.PrintBackValue Proofs.PrintBackEnts Proofs.PrintBackFinal Proofs.PrintBackSecTop.

(* ---- the condition on the tree ---------------------------------------------------------------------------------- *)
(* every item of the root table is a value without dotted keys inside: no [header], no dotted key *)
Definition flat_doc (d : doc) : bool := items_plain (t_items (doc_root d)).

(* no table below the root: nothing for `spelled` to check *)
Lemma plain_items_sections (items : list (key * item)) p : items_plain items = true ->
  forallb (fun kv => sec_item (snd kv)) items = true /\ sub_ents items p = [].
Proof.
  unfold items_plain, sub_ents. induction items as [|[k it] tl IH]; [auto|]. cbn [forallb flat_map fst snd]. intro H.
  apply andb_true_iff in H as [Hi Ht]. destruct (IH Ht) as [-> ->]. destruct it as [|v|t|ts sp]; try discriminate Hi.
  cbn [iplain] in Hi. cbn [sec_item ients app]. rewrite Hi. auto.
Qed.

Lemma flat_doc_sections s d : flat_doc d = true -> sec_items (doc_root d) = true /\ spelled s (doc_root d) = true.
Proof.
  intro H. destruct (plain_items_sections _ [] H) as [H1 H2]. split; [exact H1|]. unfold spelled. rewrite H2. reflexivity.
Qed.

(* ---- the document ------------------------------------------------------------------------------------------------ *)
(* C03 (classes a + b): an unedited document whose root table holds plain values prints back as its
   normal form *)
Theorem render_normalize_values s d : parse_document s = POk d -> flat_doc d = true -> render s d = normalize s.
Proof.
  intros Hp Hf. destruct (doc_render_sections s d Hp) as (w & t & l & o & Es & Hw & Hl & Hr).
  destruct (flat_doc_sections s d Hf) as [Hi Hsp]. rewrite (Hr Hi Hsp). symmetry.
  apply (norm_lines s w t l o); [rewrite drop_bom_strip_bom; exact Es|exact Hw|exact Hl].
Qed.

(* C03 tiling, every accepted document: the text is whitespace, then complete lines, and the normal
   form of the lines is what the scanner of Spec/Norm.v computes *)
Theorem document_tiling s d : parse_document s = POk d ->
  exists w t l o, strip_bom s = w ++ t /\ ws_tok w /\ lines_text t l o /\ normalize s = w ++ o.
Proof.
  intro Hp. destruct (doc_render_sections s d Hp) as (w & t & l & o & Es & Hw & Hl & _).
  exists w, t, l, o. repeat (split; [assumption|]). apply (norm_lines s w t l o); [rewrite drop_bom_strip_bom; exact Es|exact Hw|exact Hl].
Qed.
