(* Proofs/CanonicalBase.v — induction principles for the nested trees of Model/TomlValue.v and
   Spec/Canonical.v, the local `fix`es restated with map / filter / flat_map, and small list facts. *)
From TV Require Import Base.Prelude Model.TomlValue Spec.Canonical.
From Coq Require Import Permutation.
From TV Require Export Base.ListFacts.

(** * induction principles *)

Section TvInd.
  Variable P : tv -> Prop.
  Hypothesis Hleaf : forall t, P (TLeaf t).
  Hypothesis Harr : forall l, Forall P l -> P (TArr l).
  Hypothesis Htab : forall m, Forall (fun kv => P (snd kv)) m -> P (TTab m).
  Fixpoint tv_ind' (v : tv) : P v :=
    match v with
    | TLeaf t => Hleaf t
    | TArr l => Harr l ((fix go (l : list tv) : Forall P l :=
                           match l with [] => Forall_nil _ | x :: r => Forall_cons x (tv_ind' x) (go r) end) l)
    | TTab m => Htab m ((fix go (m : list (bytes * tv)) : Forall (fun kv => P (snd kv)) m :=
                           match m with
                           | [] => Forall_nil _
                           | kv :: r => Forall_cons kv (tv_ind' (snd kv)) (go r)
                           end) m)
    end.
End TvInd.

Section EvInd.
  Variable P : ev -> Prop.
  Hypothesis Hleaf : forall t, P (ELeaf t).
  Hypothesis Harr : forall l, Forall P l -> P (EArr l).
  Hypothesis Hinl : forall m, Forall (fun kv => P (snd kv)) m -> P (EInl m).
  Fixpoint ev_ind' (v : ev) : P v :=
    match v with
    | ELeaf t => Hleaf t
    | EArr l => Harr l ((fix go (l : list ev) : Forall P l :=
                           match l with [] => Forall_nil _ | x :: r => Forall_cons x (ev_ind' x) (go r) end) l)
    | EInl m => Hinl m ((fix go (m : list (bytes * ev)) : Forall (fun kv => P (snd kv)) m :=
                           match m with
                           | [] => Forall_nil _
                           | kv :: r => Forall_cons kv (ev_ind' (snd kv)) (go r)
                           end) m)
    end.
End EvInd.

Section IvInd.
  Variable P : iv -> Prop.
  Hypothesis Hleaf : forall t, P (VLeaf t).
  Hypothesis Harr : forall ml l, Forall P l -> P (VArr ml l).
  Hypothesis Hinl : forall m, Forall (fun kv => P (snd kv)) m -> P (VInl m).
  Fixpoint iv_ind' (v : iv) : P v :=
    match v with
    | VLeaf t => Hleaf t
    | VArr ml l => Harr ml l ((fix go (l : list iv) : Forall P l :=
                           match l with [] => Forall_nil _ | x :: r => Forall_cons x (iv_ind' x) (go r) end) l)
    | VInl m => Hinl m ((fix go (m : list (bytes * iv)) : Forall (fun kv => P (snd kv)) m :=
                           match m with
                           | [] => Forall_nil _
                           | kv :: r => Forall_cons kv (iv_ind' (snd kv)) (go r)
                           end) m)
    end.
End IvInd.

(** * small list facts *)

Lemma Forall_map_ext {A B} (f g : A -> B) l : Forall (fun x => f x = g x) l -> map f l = map g l.
Proof. induction 1; simpl; congruence. Qed.

Lemma Forall_filter {A} (P : A -> Prop) f l : Forall P l -> Forall P (filter f l).
Proof. induction 1; simpl; [constructor|]. destruct (f x); [constructor|]; assumption. Qed.

Lemma Forall_app_iff {A} (P : A -> Prop) l l' : Forall P (l ++ l') <-> Forall P l /\ Forall P l'.
Proof. apply Forall_app. Qed.

Lemma forallb_map {A B} (f : A -> B) (p : B -> bool) l : forallb p (map f l) = forallb (fun x => p (f x)) l.
Proof. induction l as [|x r IH]; simpl; [reflexivity|]. rewrite IH. reflexivity. Qed.

Lemma existsb_map {A B} (f : A -> B) (p : B -> bool) l : existsb p (map f l) = existsb (fun x => p (f x)) l.
Proof. induction l as [|x r IH]; simpl; [reflexivity|]. rewrite IH. reflexivity. Qed.

Lemma nonempty_map {A B} (f : A -> B) l : nonempty (map f l) = nonempty l.
Proof. destruct l; reflexivity. Qed.

Lemma nonempty_app {A} (l l' : list A) : nonempty (l ++ l') = nonempty l || nonempty l'.
Proof. destruct l; reflexivity. Qed.

(** * the local fixes, restated *)

Definition ser_kv (kv : bytes * tv) : bytes * ev := (fst kv, ser_value (snd kv)).
Definition order3 (m : list (bytes * tv)) : list (bytes * tv) :=
  filter (fun kv => pass1 (snd kv)) m ++ filter (fun kv => pass2 (snd kv)) m ++ filter (fun kv => pass3 (snd kv)) m.

Lemma ser_value_tab m : ser_value (TTab m) = EInl (map ser_kv (order3 m)).
Proof.
  cbn [ser_value].
  set (ent := (fix go (m : list (bytes * tv)) : list (bytes * tv * ev) :=
                 match m with [] => [] | (k, x) :: r => (k, x, ser_value x) :: go r end) m).
  assert (Hent : ent = map (fun kv => (fst kv, snd kv, ser_value (snd kv))) m).
  { subst ent. induction m as [|[k x] r IH]; simpl; [reflexivity|]. rewrite IH. reflexivity. }
  assert (Hpick : forall p, pick p ent = map ser_kv (filter (fun kv => p (snd kv)) m)).
  { intro p. rewrite Hent. unfold pick. clear. induction m as [|[k x] r IH]; simpl; [reflexivity|].
    destruct (p x); simpl; rewrite IH; reflexivity. }
  rewrite !Hpick. unfold order3. rewrite !map_app. reflexivity.
Qed.

Lemma ser_root_value_eq m : ser_root_value m = map ser_kv (order3 m).
Proof. unfold ser_root_value. rewrite ser_value_tab. reflexivity. Qed.

Lemma ser_plain_tab m : ser_plain (TTab m) = EInl (map (fun kv => (fst kv, ser_plain (snd kv))) m).
Proof.
  cbn [ser_plain]. f_equal. induction m as [|[k x] r IH]; simpl; [reflexivity|]. rewrite IH. reflexivity.
Qed.

(* the serializer of either kind: tn = true `impl Serialize for Value`, tn = false an impl that keeps
   its own order (ser_plain) *)
Definition ser_g (tn : bool) (v : tv) : ev := if tn then ser_value v else ser_plain v.
Definition ser_kv_g (tn : bool) (kv : bytes * tv) : bytes * ev := (fst kv, ser_g tn (snd kv)).
Definition ordn (tn : bool) (m : list (bytes * tv)) : list (bytes * tv) := if tn then order3 m else m.

Lemma ser_g_leaf tn t : ser_g tn (TLeaf t) = ELeaf t.
Proof. destruct tn; reflexivity. Qed.
Lemma ser_g_arr tn l : ser_g tn (TArr l) = EArr (map (ser_g tn) l).
Proof. destruct tn; reflexivity. Qed.
Lemma ser_g_tab tn m : ser_g tn (TTab m) = EInl (map (ser_kv_g tn) (ordn tn m)).
Proof. destruct tn; unfold ser_g, ordn; [apply ser_value_tab|apply ser_plain_tab]. Qed.

Lemma fmt_value_inl ml m :
  fmt_value ml (EInl m) = VInl (map (fun kv => (fst kv, fmt_value ml (snd kv))) m).
Proof.
  cbn [fmt_value]. f_equal. induction m as [|[k x] r IH]; simpl; [reflexivity|]. rewrite IH. reflexivity.
Qed.

Lemma value_of_inl m :
  value_of (VInl m) = TTab (map (fun kv => (fst kv, value_of (snd kv))) m).
Proof.
  cbn [value_of]. f_equal. induction m as [|[k x] r IH]; simpl; [reflexivity|]. rewrite IH. reflexivity.
Qed.

(* the value a key/value line holds does not depend on the array layout (plain or pretty) *)
Lemma value_of_fmt_value ml e : value_of (fmt_value ml e) = value_of (fmt_value false e).
Proof.
  induction e as [t|l IH|m IH] using ev_ind'.
  - reflexivity.
  - cbn [fmt_value value_of]. f_equal. rewrite !map_map. apply Forall_map_ext. exact IH.
  - rewrite !fmt_value_inl, !value_of_inl. f_equal. rewrite !map_map. apply Forall_map_ext.
    eapply Forall_impl; [|exact IH]. intros [k x] H; simpl in *. congruence.
Qed.

(* induction where a table also knows the hypothesis for the elements of its array entries
   (arrays of tables are handled at the table that holds them) *)
Lemma tv_ind2 (P : tv -> Prop) :
  (forall t, P (TLeaf t)) ->
  (forall l, Forall P l -> P (TArr l)) ->
  (forall m, Forall (fun kv => P (snd kv) /\ forall l, snd kv = TArr l -> Forall P l) m -> P (TTab m)) ->
  forall v, P v.
Proof.
  intros Hleaf Harr Htab v.
  enough (H : P v /\ forall l, v = TArr l -> Forall P l) by exact (proj1 H).
  induction v as [t|l IH|m IH] using tv_ind'.
  - split; [apply Hleaf|]. intros l E. discriminate.
  - assert (A : Forall P l) by (eapply Forall_impl; [|exact IH]; intros a [H _]; exact H).
    split; [apply Harr; exact A|]. intros l' E. injection E as <-. exact A.
  - split; [apply Htab; exact IH|]. intros l E. discriminate.
Qed.
