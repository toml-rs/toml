(* Proofs/PrintBackSecTop.v — C03, class (c): documents made of sections.
   1. Spec/Defs.v: a tree without a table made by dotted keys was made by statements whose key/value
      lines have plain keys.
   2. The document theorem: parse_document s = POk d, no dotted table in d, plain values, every header
      spelled as it prints  ->  render s d = normalize s. *)
From TV Require Import Base.Prelude Base.Winnow Spec.Lex Spec.Defs Spec.Syntax Spec.Norm.
From TV Require Import Model.Tree Model.Document.
From TV Require Import Proofs.GrammarBase Proofs.GrammarParam
                       Proofs.GrammarDoc Proofs.GrammarDocReject
                       Proofs.DefsEquivBase Proofs.SpansDefs
                       Proofs.TilingDefs Proofs.TilingNormDoc
                       Proofs.PrintBackBase Proofs.PrintBackEnc Proofs.PrintBackDoc
                       Proofs.PrintBackEnts
                       Proofs.PrintBackFinal Proofs.PrintBackSecDoc.
From TV Require Import Proofs.DocumentOps.
Require Import Lia ZifyBool ZifyN ZifyNat Sorting.Sorted Sorting.Permutation.

(* ---- Spec/Defs.v: tables made by dotted keys stay ---------------------------------------------------------------- *)
Section HasDotted.
  Context {V : Type}.
  Definition is_kdotted (kd : kind) : bool := match kd with KDotted => true | _ => false end.
  Fixpoint hdn (n : node V) : bool :=
    match n with
    | NVal _ => false
    | NTab kd items =>
      is_kdotted kd || (fix go (l : list (bytes * node V)) : bool := match l with [] => false | (_, n') :: tl => hdn n' || go tl end) items
    | NAot es =>
      (fix goe (l : list (list (bytes * node V))) : bool :=
         match l with
         | [] => false
         | e :: tl => (fix go (l : list (bytes * node V)) : bool := match l with [] => false | (_, n') :: tl => hdn n' || go tl end) e || goe tl
         end) es
    end.
  Definition hdt (t : stree V) : bool := existsb (fun kn => hdn (snd kn)) t.

  Lemma hdt_go (l : list (bytes * node V)) :
    (fix go (l : list (bytes * node V)) : bool := match l with [] => false | (_, n') :: tl => hdn n' || go tl end) l = hdt l.
  Proof. unfold hdt. induction l as [|[k n] tl IH]; [reflexivity|]. cbn [existsb snd]. rewrite <- IH. reflexivity. Qed.
  Lemma hdn_tab kd items : hdn (NTab kd items) = is_kdotted kd || hdt items.
  Proof. cbn [hdn]. rewrite hdt_go. reflexivity. Qed.
  Lemma hdn_aot es : hdn (NAot es) = existsb hdt es.
  Proof. cbn [hdn]. induction es as [|e tl IH]; [reflexivity|]. cbn [existsb]. rewrite <- IH, hdt_go. reflexivity. Qed.

  Lemma hdt_app a b : hdt (a ++ b) = hdt a || hdt b.
  Proof. apply existsb_app. Qed.
  Lemma hdt_push t k n : hdt (spush t k n) = hdt t || hdn n.
  Proof. unfold spush. rewrite hdt_app. cbn [hdt existsb snd]. rewrite orb_false_r. reflexivity. Qed.

  Lemma sget_split (t : stree V) k n : sget t k = Some n ->
    exists A k' B, t = A ++ (k', n) :: B /\ (forall n', sset t k n' = A ++ (k', n') :: B) /\ sremove t k = A ++ B.
  Proof.
    induction t as [|[k1 n1] t IH]; cbn [sget]; [discriminate|]. destruct (bytes_eqb k1 k) eqn:E.
    - intro H. injection H as <-. exists [], k1, t. cbn [app sset sremove]. rewrite E. repeat split.
    - intro H. destruct (IH H) as (A & k' & B & -> & Hs & Hr). exists ((k1, n1) :: A), k', B. cbn [app sset sremove]. rewrite E.
      split; [reflexivity|]. split; [intro n'; rewrite Hs; reflexivity|rewrite Hr; reflexivity].
  Qed.

  Lemma hdt_set t k n0 n : sget t k = Some n0 -> (hdn n0 = true -> hdn n = true) -> hdt t = true -> hdt (sset t k n) = true.
  Proof.
    intros G Hn Ht. destruct (sget_split t k n0 G) as (A & k' & B & -> & Hs & _). rewrite Hs. rewrite hdt_app in *.
    change (hdt ((k', n0) :: B)) with (hdn n0 || hdt B) in Ht. change (hdt ((k', n) :: B)) with (hdn n || hdt B).
    destruct (hdt A); [reflexivity|]. cbn [orb] in *. destruct (hdn n0); [rewrite Hn; reflexivity|]. cbn [orb] in *. rewrite Ht. apply orb_true_r.
  Qed.
  Lemma hdt_set_new t k n0 n : sget t k = Some n0 -> hdn n = true -> hdt (sset t k n) = true.
  Proof.
    intros G Hn. destruct (sget_split t k n0 G) as (A & k' & B & -> & Hs & _). rewrite Hs. rewrite hdt_app.
    change (hdt ((k', n) :: B)) with (hdn n || hdt B). rewrite Hn. cbn [orb]. apply orb_true_r.
  Qed.

  (* at_path keeps what f keeps, and shows what f makes *)
  Lemma at_path_keeps f : (forall c c', f c = ROk c' -> hdt c = true -> hdt c' = true) ->
    forall p t t', at_path p f t = ROk t' -> hdt t = true -> hdt t' = true.
  Proof.
    intros Hf. induction p as [|k p IH]; intros t t' H Ht; cbn [at_path] in H; [apply (Hf _ _ H Ht)|].
    destruct (sget t k) as [[v|kd c|es]|] eqn:G.
    - discriminate.
    - destruct (at_path p f c) as [c'| |] eqn:E; cbn [rbind] in H; try discriminate. injection H as <-.
      apply (hdt_set t k _ _ G); [|exact Ht]. rewrite !hdn_tab. intro Hh. apply orb_true_iff in Hh as [-> | Hh]; [reflexivity|].
      rewrite (IH _ _ E Hh). apply orb_true_r.
    - destruct (rev es) as [|e before] eqn:Er; [discriminate|]. destruct (at_path p f e) as [e'| |] eqn:E; cbn [rbind] in H; try discriminate. injection H as <-.
      apply (hdt_set t k _ _ G); [|exact Ht]. rewrite !hdn_aot. assert (Ees : es = rev before ++ [e]) by (rewrite <- (rev_involutive es), Er; reflexivity).
      rewrite Ees, !existsb_app. cbn [existsb]. rewrite !orb_false_r. intro Hh. apply orb_true_iff in Hh as [-> | Hh]; [reflexivity|].
      rewrite (IH _ _ E Hh). apply orb_true_r.
    - destruct (at_path p f []) as [c'| |] eqn:E; cbn [rbind] in H; try discriminate. injection H as <-. rewrite hdt_push, Ht. reflexivity.
  Qed.

  Lemma at_path_makes f : (forall c c', f c = ROk c' -> hdt c' = true) ->
    forall p t t', at_path p f t = ROk t' -> hdt t' = true.
  Proof.
    intros Hf. induction p as [|k p IH]; intros t t' H; cbn [at_path] in H; [apply (Hf _ _ H)|].
    destruct (sget t k) as [[v|kd c|es]|] eqn:G.
    - discriminate.
    - destruct (at_path p f c) as [c'| |] eqn:E; cbn [rbind] in H; try discriminate. injection H as <-.
      apply (hdt_set_new t k _ _ G). rewrite hdn_tab, (IH _ _ E). apply orb_true_r.
    - destruct (rev es) as [|e before] eqn:Er; [discriminate|]. destruct (at_path p f e) as [e'| |] eqn:E; cbn [rbind] in H; try discriminate. injection H as <-.
      apply (hdt_set_new t k _ _ G). rewrite hdn_aot, existsb_app. cbn [existsb]. rewrite (IH _ _ E). cbn [orb]. apply orb_true_r.
    - destruct (at_path p f []) as [c'| |] eqn:E; cbn [rbind] in H; try discriminate. injection H as <-. rewrite hdt_push, hdn_tab, (IH _ _ E).
      cbn [orb]. rewrite !orb_true_r. reflexivity.
  Qed.

  Lemma insert_kv_eq p k k2 p'' v (t : stree V) : p = k :: k2 :: p'' ->
    insert_kv false p v t =
    match sget t k with
    | None => c <~ insert_kv false (k2 :: p'') v [] ;; ROk (spush t k (NTab KDotted c))
    | Some (NTab KDotted c) => c' <~ insert_kv false (k2 :: p'') v c ;; ROk (sset t k (NTab KDotted c'))
    | Some (NTab KSuper c) =>
      match p'' with
      | [] => RInvalid
      | _ => c' <~ insert_kv false (k2 :: p'') v c ;; ROk (sset t k (NTab KSuper c'))
      end
    | Some _ => RInvalid
    end.
  Proof. intros ->. reflexivity. Qed.

  (* a dotted key makes a dotted table *)
  Lemma insert_kv_makes : forall p v (t t' : stree V), 2 <= length p -> insert_kv false p v t = ROk t' -> hdt t' = true.
  Proof.
    induction p as [|k p IH]; intros v t t' Hl H; [cbn in Hl; lia|]. destruct p as [|k2 p'']; [cbn in Hl; lia|].
    rewrite (insert_kv_eq _ k k2 p'' v t eq_refl) in H. destruct (sget t k) as [[v0|kd c|es]|] eqn:G; try discriminate.
    - destruct kd; try discriminate.
      + destruct p'' as [|k3 p3]; [discriminate|]. destruct (insert_kv false (k2 :: k3 :: p3) v c) as [c'| |] eqn:E; cbn [rbind] in H; try discriminate.
        injection H as <-. apply (hdt_set_new t k _ _ G). assert (Hl2 : 2 <= length (k2 :: k3 :: p3)) by (cbn [length]; lia).
        rewrite hdn_tab, (IH v c c' Hl2 E). apply orb_true_r.
      + destruct (insert_kv false (k2 :: p'') v c) as [c'| |]; cbn [rbind] in H; try discriminate. injection H as <-.
        apply (hdt_set_new t k _ _ G). reflexivity.
    - destruct (insert_kv false (k2 :: p'') v []) as [c'| |]; cbn [rbind] in H; try discriminate. injection H as <-. rewrite hdt_push. apply orb_true_r.
  Qed.

  Lemma insert_kv_keeps p v (t t' : stree V) : insert_kv false p v t = ROk t' -> hdt t = true -> hdt t' = true.
  Proof.
    intros H Ht. destruct p as [|k [|k2 p'']]; [discriminate| |apply (insert_kv_makes (k :: k2 :: p'') v t t'); [cbn [length]; lia|exact H]].
    cbn [insert_kv] in H. destruct (sget t k); [discriminate|]. injection H as <-. rewrite hdt_push, Ht. reflexivity.
  Qed.

  Lemma def_table_keeps k (t t' : stree V) : def_table k t = ROk t' -> hdt t = true -> hdt t' = true.
  Proof.
    unfold def_table. intros H Ht. destruct (sget t k) as [[v|kd c|es]|] eqn:G; try discriminate.
    - destruct kd; try discriminate. injection H as <-. destruct (sget_split t k _ G) as (A & k' & B & Et & _ & Er).
      rewrite Et, hdt_app in Ht. change (hdt ((k', NTab KSuper c) :: B)) with (hdn (NTab KSuper c) || hdt B) in Ht. rewrite hdn_tab in Ht.
      rewrite hdt_push, Er, hdt_app, hdn_tab. cbn [is_kdotted orb] in *.
      destruct (hdt A), (hdt c), (hdt B); cbn [orb] in *; try reflexivity; discriminate.
    - injection H as <-. rewrite hdt_push, Ht. reflexivity.
  Qed.

  Lemma def_elem_keeps k (t t' : stree V) : def_elem k t = ROk t' -> hdt t = true -> hdt t' = true.
  Proof.
    unfold def_elem. intros H Ht. destruct (sget t k) as [[v|kd c|es]|] eqn:G; try discriminate.
    - injection H as <-. apply (hdt_set t k _ _ G); [|exact Ht]. rewrite !hdn_aot, existsb_app. intro Hh. apply orb_true_iff. left. exact Hh.
    - injection H as <-. rewrite hdt_push, Ht. reflexivity.
  Qed.

  Definition sec_s (st : stmt V) : bool := match st with SKeyVal p _ => Nat.eqb (length p) 1 | _ => true end.

  Lemma step_nodotted (s s' : Defs.sstate V) st : spec_step false s st = ROk s' -> hdt (fst s') = false ->
    hdt (fst s) = false /\ sec_s st = true.
  Proof.
    destruct s as [t cur]. destruct st as [p|p|p v]; cbn [spec_step fst].
    - destruct (unsnoc p) as [[pre k]|]; [|discriminate]. destruct (at_path pre (def_table k) t) as [t'| |] eqn:E; cbn [rbind]; try discriminate.
      intro H. injection H as <-. cbn [fst]. intro Hv. split; [|reflexivity]. destruct (hdt t) eqn:Ht; [|reflexivity].
      rewrite (at_path_keeps _ (def_table_keeps k) _ _ _ E Ht) in Hv. discriminate.
    - destruct (unsnoc p) as [[pre k]|]; [|discriminate]. destruct (at_path pre (def_elem k) t) as [t'| |] eqn:E; cbn [rbind]; try discriminate.
      intro H. injection H as <-. cbn [fst]. intro Hv. split; [|reflexivity]. destruct (hdt t) eqn:Ht; [|reflexivity].
      rewrite (at_path_keeps _ (def_elem_keeps k) _ _ _ E Ht) in Hv. discriminate.
    - destruct (at_path cur (insert_kv false p v) t) as [t'| |] eqn:E; cbn [rbind]; try discriminate.
      intro H. injection H as <-. cbn [fst]. intro Hv. split.
      + destruct (hdt t) eqn:Ht; [|reflexivity]. rewrite (at_path_keeps _ (insert_kv_keeps p v) _ _ _ E Ht) in Hv. discriminate.
      + cbn [sec_s]. apply Nat.eqb_eq. destruct (Nat.eq_dec (length p) 1) as [Hl | Hl]; [exact Hl|]. exfalso.
        destruct p as [|k [|k2 p'']]; [|cbn in Hl; congruence|].
        * assert (Hm : forall c c' : stree V, insert_kv false [] v c = ROk c' -> hdt c' = true) by (intros c c' Hc; discriminate Hc).
          rewrite (at_path_makes _ Hm _ _ _ E) in Hv. discriminate.
        * assert (Hm : forall c c' : stree V, insert_kv false (k :: k2 :: p'') v c = ROk c' -> hdt c' = true)
            by (intros c c' Hc; apply (insert_kv_makes (k :: k2 :: p'') v c c'); [cbn [length]; lia|exact Hc]).
          rewrite (at_path_makes _ Hm _ _ _ E) in Hv. discriminate.
  Qed.

  Lemma fold_nodotted : forall l (s : Defs.sstate V) T c, spec_fold false s l = ROk (T, c) -> hdt T = false ->
    hdt (fst s) = false /\ forallb sec_s l = true.
  Proof.
    induction l as [|st tl IH]; intros s T c H Hv; cbn [spec_fold] in H.
    - injection H as ->. auto.
    - destruct (spec_step false s st) as [s'| |] eqn:E; cbn [rbind] in H; try discriminate.
      destruct (IH s' T c H Hv) as [Hv' Hf]. destruct (step_nodotted s s' st E Hv') as [H1 H2]. cbn [forallb]. rewrite H2, Hf. auto.
  Qed.

  Lemma code_run_nodotted l (T : stree V) : code_run l = Valid T -> hdt T = false -> forallb sec_s l = true.
  Proof.
    unfold code_run, run. destruct (spec_fold false Defs.sstate0 l) as [[T' c]| |] eqn:E; try discriminate.
    intro H. injection H as ->. intro Hv. apply (fold_nodotted l Defs.sstate0 T c E Hv).
  Qed.
End HasDotted.

(* ---- the conditions on the tree ---------------------------------------------------------------------------------- *)
(* no table of the document was made by dotted keys, and no inline table inside a value either *)
Definition sec_doc (d : doc) : bool := sec_tbl (doc_root d).

(* the same without the root's own flag, which is never set *)
Definition sec_items (t : tbl) : bool := forallb (fun kv => sec_item (snd kv)) (t_items t).

Lemma sec_tbl_items t : sec_tbl t = true -> sec_items t = true.
Proof. rewrite sec_tbl_eq. intro H. apply andb_true_iff in H as [_ H]. exact H. Qed.

Lemma hdn_nmap {V W} (f : V -> W) (n : node V) : hdn (nmap f n) = hdn n.
Proof.
  induction n as [v|kd items IH|es IH] using node_ind'.
  - reflexivity.
  - rewrite nmap_tab, !hdn_tab. f_equal. unfold hdt, smap. induction IH as [|[k n] tl Hn _ IHl]; [reflexivity|].
    cbn [map existsb kmap snd] in *. rewrite Hn, IHl. reflexivity.
  - rewrite nmap_aot, !hdn_aot. induction IH as [|e tl He _ IHl]; [reflexivity|]. cbn [map existsb]. rewrite IHl. f_equal.
    unfold hdt, smap. induction He as [|[k n] tl' Hn _ IHl']; [reflexivity|]. cbn [map existsb kmap snd] in *. rewrite Hn, IHl'. reflexivity.
Qed.

Lemma hdt_smap {V W} (f : V -> W) (t : stree V) : hdt (smap f t) = hdt t.
Proof. unfold hdt, smap. induction t as [|[k n] tl IH]; [reflexivity|]. cbn [map existsb kmap snd]. rewrite hdn_nmap, IH. reflexivity. Qed.

Lemma sec_abs :
  (forall v : value, True)
  /\ (forall it, sec_item it = true -> hdn (abs_item it) = false)
  /\ (forall t, sec_items t = true -> hdt (abs_tbl t) = false).
Proof.
  apply tree_ind3; try (intros; exact I).
  - discriminate.
  - reflexivity.
  - intros t IH Hs. change (sec_item (ITable t)) with (sec_tbl t) in Hs. rewrite sec_tbl_eq in Hs. apply andb_true_iff in Hs as [Hd Hi].
    change (abs_item (ITable t)) with (NTab (kind_of t) (abs_tbl t)). rewrite hdn_tab, (IH Hi), orb_false_r.
    unfold kind_of. destruct (t_implicit t); [|reflexivity]. destruct (t_dotted t); [discriminate|reflexivity].
  - intros ts sp IH Hs. rewrite abs_item_aot, hdn_aot. rewrite sec_item_aot in Hs. rewrite forallb_forall in Hs.
    induction IH as [|t tl Ht _ IHl]; [reflexivity|]. cbn [map existsb]. rewrite (Ht (sec_tbl_items t (Hs t (or_introl eq_refl)))). cbn [orb].
    apply IHl. intros x Hx. apply Hs. right. exact Hx.
  - intros items d im dt pos sp IH Hi. rewrite abs_tbl_eq. unfold sec_items in Hi. cbn [t_items] in *.
    rewrite forallb_forall in Hi. unfold hdt, abs_items. induction IH as [|[k it] tl Ht _ IHl]; [reflexivity|]. cbn [map existsb abs_kv snd] in *.
    rewrite (Ht (Hi _ (or_introl eq_refl))). cbn [orb]. apply IHl. intros x Hx. apply Hi. right. exact Hx.
Qed.

Lemma sec_doc_nodotted d : sec_items (doc_root d) = true -> hdt (abs_doc d) = false.
Proof. intro H. unfold abs_doc. rewrite hdt_smap. apply (proj2 (proj2 sec_abs)), H. Qed.

Lemma sec_den l : forallb sec_s (map stmt_den l) = secl l.
Proof. unfold secl. induction l as [|st tl IH]; [reflexivity|]. cbn [map forallb]. rewrite IH. destruct st; reflexivity. Qed.

Lemma lines_dlines t l o : lines_text t l o -> dlines t l.
Proof.
  induction 1 as [|w0 e l o Hw0 He|w0 e l o nl w t l' o' Hw0 He Hn Hw Hl IH].
  - apply dl_nil.
  - apply dl_last; [exact Hw0|apply (item_text_item e l o He)].
  - apply dl_cons; try assumption. apply (item_text_item e l o He).
Qed.

Lemma sec_doc_lines s d w t l o : parse_document s = POk d -> strip_bom s = w ++ t -> ws_tok w -> lines_text t l o ->
  sec_items (doc_root d) = true -> secl l = true.
Proof.
  intros Hp Es Hw Hl Hf.
  assert (Ht : toml_text s l) by (unfold toml_text; rewrite Es; apply toml_tok_ws; [exact Hw|apply dlines_toml, (lines_dlines t l o Hl)]).
  destruct (parse_document_total s d l Hp Ht) as (_ & _ & Hc).
  rewrite <- sec_den. apply (code_run_nodotted _ _ Hc). apply sec_doc_nodotted, Hf.
Qed.

(* ---- the document ------------------------------------------------------------------------------------------------ *)
Theorem doc_render_sections s d : parse_document s = POk d ->
  exists w t l o, strip_bom s = w ++ t /\ ws_tok w /\ lines_text t l o
                  /\ (sec_items (doc_root d) = true -> spelled s (doc_root d) = true -> render s d = w ++ o).
Proof.
  intro Hp. destruct (parse_document_read s d Hp) as (bm & i1 & w0 & i2 & stl & i3 & st' & Sb & _ & Hw0 & Sw & Es & El & Rend & Ef & Hd).
  destruct (isrc_splits s _ bm i1 (isrc_new s) Sb) as [Hi1 _]. destruct (isrc_splits s i1 w0 i2 Hi1 Sw) as [Hi2 _].
  destruct (doc_loop_render2 s _ _ _ _ _ Hi2 El) as (t & l & o & St & Hlt & Hi3 & Hok).
  assert (Et : rest i2 = t) by (destruct St as [Rt _]; rewrite Rend, app_nil_r in Rt; exact Rt).
  rewrite Et in Es. exists w0, t, l, o. split; [exact Es|]. split; [exact Hw0|]. split; [exact Hlt|]. intros Hf Hsp.
  pose proof (sec_doc_lines s d w0 t l o Hp Es Hw0 Hlt Hf) as Hfl.
  assert (HI0 : sinv s (on_ws state_new (pos i1, pos i2)) i2 [] i1 w0).
  { apply (si_root s _ _ _ _ _ [] []); [|constructor|reflexivity|apply pending_first; [reflexivity|assumption..]].
    split; [reflexivity|]. split; [reflexivity|]. split; [reflexivity|]. split; [eexists; reflexivity|constructor]. }
  destruct (Hok [] i1 w0 HI0 Hfl) as (out' & j0 & pend & HI' & Eo).
  destruct (sinv_finalize s stl i3 out' j0 pend st' HI' Ef) as (done & Est' & Hur & (Hdec & Hpos & Hdt) & Hperm & (d0 & ds & Ed & Hd0 & Hds) & Hsort & _ & Eout).
  destruct (sinv_pending s _ _ _ _ _ HI') as (Htr & Hj0 & Spend).
  assert (Etr : st_trailing st' = Some (pos j0, pos i3)) by (rewrite Est'; cbn [finalized st_trailing]; exact Htr).
  rewrite Etr in Hd. subst d. cbn [doc_root] in *.
  assert (Hs : sec_tbl (st_root st') = true) by (rewrite sec_tbl_eq, Hdt; exact Hf).
  unfold render. cbn [doc_root doc_trailing]. subst done.
  rewrite (sections_render s (st_root st') _ d0 ds Hs Hdec Hpos Hur Hperm Hd0 Hds Hsort Hsp).
  rewrite (span_prints s j0 pend i3 [] Hj0 Spend), Eout, Eo. cbn [app]. rewrite (ncr_ws w0 Hw0). reflexivity.
Qed.

(* C03, classes (a) + (b) + (c) *)
Theorem render_normalize_sections s d : parse_document s = POk d -> sec_doc d = true -> spelled s (doc_root d) = true ->
  render s d = normalize s.
Proof.
  intros Hp Hf Hsp. destruct (doc_render_sections s d Hp) as (w & t & l & o & Es & Hw & Hl & Hr).
  rewrite (Hr (sec_tbl_items _ Hf) Hsp). symmetry. apply (norm_lines s w t l o); [rewrite drop_bom_strip_bom; exact Es|exact Hw|exact Hl].
Qed.
