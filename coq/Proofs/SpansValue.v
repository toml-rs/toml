(* Proofs/SpansValue.v — C14: the value / array / inline-table knot records spans inside the text it
   consumed (range part), and the span stored for a value is exactly the window of the value. *)
From TV Require Import Base.Prelude Base.Winnow Gen.Consts.
From TV Require Import Model.Trivia Model.Tree Model.Parse.
From TV Require Import Proofs.NoPanicBase Proofs.NoPanicLex Proofs.NoPanicValue.
From TV Require Import Proofs.SpansDefs Proofs.SpansBase Proofs.SpansLex.
From TV Require Import Proofs.DocumentOps.
Require Import Lia ZifyBool ZifyN ZifyNat.

Lemma sp_in_pair lo hi a b : (lo <= a)%N -> (a <= b)%N -> (b <= hi)%N -> sp_in lo hi (a, b) = true.
Proof. unfold sp_in; cbn [fst snd]. nlia. Qed.

(* ---- check_recursion ------------------------------------------------------------------------------------ *)
Lemma winP_check_recursion {A} (Q : N -> N -> A -> Prop) (p : parser A) : winP Q p -> winP Q (check_recursion p).
Proof.
  intros Hp lo hi i a i' E L U. apply check_recursion_inv in E as (i2 & d & E & D & ->).
  eapply Hp; [exact E|exact L|exact U].
Qed.

(* ---- inline tables: table_from_pairs keeps spans in the window -------------------------------------------- *)
(* a (path, key, value) triple as `keyval` returns it: the keys lie left of the value *)
Definition pair_in (lo hi : N) (x : list key * (key * item)) : Prop :=
  exists mid, keys_in lo mid (fst x) = true /\ key_in lo mid (fst (snd x)) = true
              /\ item_in mid hi (snd (snd x)) = true /\ (lo <= mid)%N /\ (mid <= hi)%N.

Lemma pair_in_wide lo hi x : pair_in lo hi x ->
  keys_in lo hi (fst x) = true /\ key_in lo hi (fst (snd x)) = true /\ item_in lo hi (snd (snd x)) = true.
Proof.
  intros (mid & H1 & H2 & H3 & L & U). repeat split.
  - unfold keys_in in *. apply forallb_Forall. apply forallb_Forall in H1. eapply Forall_impl; [|exact H1].
    intros k. apply key_in_mono; nlia.
  - eapply key_in_mono; [| |exact H2]; nlia.
  - eapply item_in_mono; [| |exact H3]; nlia.
Qed.

(* inline_insert on success, as an induction principle: R m path m' relates the entries before and after *)
Section InlineInsertInd.
  Variables (pe : bool) (k : key) (v : item) (R : kvs -> list key -> kvs -> Prop).
  Hypothesis Rleaf : forall m, kv_get m (k_key k) = None -> R m [] (kv_push m k v).
  Hypothesis Rnew : forall m pk ptl sub', kv_get m (k_key pk) = None -> R [] ptl sub' ->
    R m (pk :: ptl) (kv_push m pk (IValue (VInline sub' REmpty true true decor_default None))).
  Hypothesis Rsub : forall m pk ptl k' sub pre dt dec sp sub',
    kv_get m (k_key pk) = Some (k', IValue (VInline sub pre true dt dec sp)) -> R sub ptl sub' ->
    R m (pk :: ptl) (kv_set m (k_key pk) (IValue (VInline sub' pre true dt dec sp))).

  Lemma inline_insert_ind : forall path m dh m', inline_insert m dh path pe k v = COk m' -> R m path m'.
  Proof.
    induction path as [|pk ptl IH]; intros m dh m' E; cbn [inline_insert] in E.
    - destruct (Bool.eqb dh pe); [discriminate|]. destruct (kv_get m (k_key k)) eqn:G; [discriminate|].
      inversion E; subst. apply Rleaf, G.
    - destruct (kv_get m (k_key pk)) as [[k' it]|] eqn:G.
      + destruct it as [|val| |]; try discriminate E.
        destruct val as [s r d|vals tr c d sp|sub pre imp dt dec sp]; try discriminate E.
        destruct imp; cbn [negb] in E; [|discriminate].
        destruct (inline_insert sub dt ptl pe k v) as [sub'| |] eqn:W; try discriminate E. inversion E; subst.
        eapply Rsub; [exact G|apply (IH _ _ _ W)].
      + destruct (inline_insert [] true ptl pe k v) as [sub'| |] eqn:W; try discriminate E. inversion E; subst.
        apply Rnew; [exact G|apply (IH _ _ _ W)].
  Qed.
End InlineInsertInd.

Lemma inline_insert_in lo hi : forall path m dh pe k v m',
  items_in lo hi m = true -> keys_in lo hi path = true -> key_in lo hi k = true -> item_in lo hi v = true ->
  inline_insert m dh path pe k v = COk m' -> items_in lo hi m' = true.
Proof.
  intros path m dh pe k v m' Hm Hp Hk Hv E. revert Hm Hp.
  apply (inline_insert_ind pe k v
           (fun m path m' => items_in lo hi m = true -> keys_in lo hi path = true -> items_in lo hi m' = true)) with (4 := E).
  - intros m0 _ Hm _. apply items_in_push; assumption.
  - intros m0 pk ptl sub' _ IH Hm Hp. cbn [keys_in forallb] in Hp. apply andb_true_iff in Hp as [Hpk Hptl].
    apply items_in_push; [exact Hm|exact Hpk|]. rewrite item_in_inline. apply andb4. repeat split; auto.
  - intros m0 pk ptl k' sub pre dt dec sp sub' G IH Hm Hp. cbn [keys_in forallb] in Hp. apply andb_true_iff in Hp as [_ Hptl].
    destruct (items_in_get _ _ _ _ _ _ Hm G) as [_ Hit]. rewrite item_in_inline in Hit. apply andb4 in Hit as (H1 & H2 & H3 & H4).
    apply items_in_set; [exact Hm|]. rewrite item_in_inline. apply andb4. repeat split; auto.
Qed.

Lemma table_from_pairs_loop_d_in lo hi : forall pairs m m',
  items_in lo hi m = true -> Forall (pair_in lo hi) pairs ->
  table_from_pairs_loop_d m pairs = COk m' -> items_in lo hi m' = true.
Proof.
  induction pairs as [|[path [k v]] tl IH]; intros m m' Hm Hp E; cbn [table_from_pairs_loop_d] in E.
  - inversion E; subst. exact Hm.
  - inversion Hp as [|? ? Hx Htl]; subst. apply pair_in_wide in Hx as (H1 & H2 & H3). cbn [fst snd] in *.
    destruct (check_depth _); [discriminate|].
    destruct (inline_insert m false path _ k v) as [m1| |] eqn:R; try discriminate E.
    eapply IH; [|exact Htl|exact E]. eapply inline_insert_in; eauto.
Qed.

Lemma key_span_in lo hi k ks : key_in lo hi k = true -> key_span k = Some ks -> sp_in lo hi ks = true.
Proof.
  unfold key_in, key_span. intros H E. apply andb3 in H as (H & _ & _). destruct (k_repr k) as [r|]; [|discriminate].
  cbn [oraw_in] in H. unfold raw_in in H. rewrite E in H. exact H.
Qed.

Lemma widen_in lo hi sp ks e :
  osp_in lo hi sp = true -> sp_in lo hi ks = true -> (snd ks <= e)%N -> (e <= hi)%N ->
  osp_in lo hi (widen sp ks e) = true.
Proof.
  unfold widen. intros H1 H2 H3 H4. destruct sp as [s|]; cbn [osp_in] in *; unfold sp_in in *; cbn [fst snd]; nlia.
Qed.

(* the span bookkeeping of dotted inline tables: a key of the path and the end of the value *)
Lemma inline_set_spans_in lo mid hi : forall path m ve,
  items_in lo hi m = true -> keys_in lo mid path = true -> (mid <= hi)%N ->
  (forall e, ve = Some e -> (mid <= e)%N /\ (e <= hi)%N) ->
  items_in lo hi (inline_set_spans m path ve) = true.
Proof.
  induction path as [|k ptl IH]; intros m ve Hm Hp Hmid Hve; cbn [inline_set_spans]; [exact Hm|].
  cbn [keys_in forallb] in Hp. apply andb_true_iff in Hp as [Hk Hptl].
  destruct (kv_get m (k_key k)) as [[k' it]|] eqn:G; [|exact Hm].
  destruct (items_in_get _ _ _ _ _ _ Hm G) as [_ Hit]. destruct it as [|val| |]; try exact Hm.
  destruct val as [s r d|vals tr c d sp|sub pre imp dt dec sp]; try exact Hm.
  rewrite item_in_inline in Hit. apply andb4 in Hit as (H1 & H2 & H3 & H4).
  apply items_in_set; [exact Hm|]. rewrite item_in_inline. apply andb4. repeat split; auto.
  destruct dt; [|exact H4]. destruct (key_span k) as [ks|] eqn:K; [|exact H4]. destruct ve as [e|]; [|exact H4].
  destruct (Hve e eq_refl) as [Ha Hb]. pose proof (key_span_in _ _ _ _ Hk K) as Hks.
  apply widen_in; [exact H4| | |exact Hb]; unfold sp_in in *; nlia.
Qed.

Lemma item_span_in lo hi v sp : item_in lo hi v = true -> item_span v = Some sp -> sp_in lo hi sp = true.
Proof.
  intros H S. destruct v as [|val|t|ts asp]; cbn [item_span] in S; [discriminate| | |].
  - rewrite item_in_value in H. destruct val as [s r d|vals tr c d sp0|items pre im dt d sp0]; cbn [value_span] in S.
    + destruct r as [r|]; [|discriminate]. rewrite value_in_scalar in H. apply andb_true_iff in H as [H _].
      cbn [oraw_in] in H. unfold raw_in in H. rewrite S in H. exact H.
    + rewrite value_in_array in H. apply andb4 in H as (_ & _ & _ & H). subst sp0. exact H.
    + rewrite inline_in_items in H. apply andb4 in H as (_ & _ & _ & H). subst sp0. exact H.
  - rewrite item_in_table, tbl_in_items in H. apply andb3 in H as (_ & _ & H). rewrite S in H. exact H.
  - rewrite item_in_aot in H. apply andb_true_iff in H as [_ H]. subst asp. exact H.
Qed.
Lemma item_end_in lo hi v e : item_in lo hi v = true -> item_end v = Some e -> (lo <= e)%N /\ (e <= hi)%N.
Proof.
  unfold item_end. destruct (item_span v) as [sp|] eqn:S; [|discriminate]. intros H E. inversion E; subst e.
  apply (item_span_in _ _ _ _ H) in S. unfold sp_in in S. nlia.
Qed.

Lemma inline_spans_pass_in lo hi : forall pairs m,
  items_in lo hi m = true -> Forall (pair_in lo hi) pairs -> items_in lo hi (inline_spans_pass m pairs) = true.
Proof.
  unfold inline_spans_pass. induction pairs as [|[path [k v]] tl IH]; intros m Hm Hp; cbn [fold_left]; [exact Hm|].
  inversion Hp as [|? ? Hx Htl]; subst. apply IH; [|exact Htl].
  destruct Hx as (mid & H1 & H2 & H3 & L & U). cbn [fst snd] in *.
  eapply inline_set_spans_in; [exact Hm|exact H1|exact U|]. intros e E. eapply item_end_in in E; [|exact H3]. exact E.
Qed.

Lemma table_from_pairs_in lo hi pairs pre v :
  Forall (pair_in lo hi) pairs -> raw_in lo hi pre = true -> table_from_pairs pairs pre = TmOk v ->
  exists items, v = VInline items pre false false decor_default None /\ items_in lo hi items = true.
Proof.
  intros Hp Hpre E. unfold table_from_pairs in E.
  destruct (table_from_pairs_loop_d [] pairs) as [m| |] eqn:R; try discriminate E. inversion E; subst.
  eexists. split; [reflexivity|]. apply inline_spans_pass_in; [|exact Hp].
  eapply table_from_pairs_loop_d_in; [|exact Hp|exact R]. reflexivity.
Qed.

(* ---- key/value pairs ------------------------------------------------------------------------------------------ *)
Lemma keyval_of_win vp sfx :
  mono vp -> mono sfx -> winP (fun lo hi v => value_in lo hi v = true) vp ->
  winP (fun lo hi sp => sp_in lo hi sp = true) sfx -> winP pair_in (keyval_of vp sfx).
Proof.
  intros Mv Ms Hv Hs lo hi i x i' E L U.
  apply keyval_of_ok in E as (kp & path & k & j & b & j1 & pre & j2 & v & j3 & suf & E0 & P & E1 & E2 & E3 & E4 & ->).
  pos_le E0. pos_le E1. pos_le E2. pose proof (mono_le _ _ _ _ Mv E3). pose proof (mono_le _ _ _ _ Ms E4).
  destruct (pop_key_in _ _ _ _ _ (key_win lo (pos j) _ _ _ E0 L (N.le_refl _)) P) as [Hpath Hk].
  exists (pos j). cbn [fst snd item_in]. repeat split; [exact Hpath|exact Hk| |nlia|nlia].
  apply value_in_decorate; [eapply Hv; [exact E3|nlia|nlia]| |]; apply raw_with_span_in.
  - eapply (winP_span_ ws); [np|exact E2|nlia|nlia].
  - eapply Hs; [exact E4|nlia|nlia].
Qed.

(* ---- one level of the knot ---------------------------------------------------------------------------------- *)
(* what value_body returns, before apply_raw: no span of its own yet, contents inside the window *)
Definition body_in (lo hi : N) (v : value) : Prop :=
  match v with
  | VScalar _ None d => d = decor_default
  | VArray vals tr _ d None => forallb (item_in lo hi) vals = true /\ raw_in lo hi tr = true
  | VInline items pre _ _ d None => items_in lo hi items = true /\ raw_in lo hi pre = true
  | _ => False
  end.

Section Knot.
  Variable value_rec : parser value.
  Hypothesis Hm : mono value_rec.
  Hypothesis Hw : winP (fun lo hi v => value_in lo hi v = true) value_rec.

  Lemma array_value_win : winP (fun lo hi it => item_in lo hi it = true) (array_value value_rec).
  Proof.
    intros lo hi i it i' E L U. unfold array_value in E. binds E. apply ret_inv in E as [-> ->].
    apply span_inv in E0 as (x0 & E0 & ->). apply span_inv in E2 as (x2 & E2 & ->).
    pos_le E0. pos_le E2. pose proof (mono_le _ _ _ _ Hm E1).
    cbn [item_in]. apply value_in_decorate; [eapply Hw; [exact E1|nlia|nlia]| |];
      apply raw_with_span_in, sp_in_pair; nlia.
  Qed.

  Lemma array_values_win : winP body_in (array_values value_rec).
  Proof.
    pose proof (array_value_mono _ Hm) as Mav.
    intros lo hi i v i' E L U. unfold array_values in E. binds E. destruct a as [c|].
    - apply ret_inv in E as [-> ->]. cbn. auto.
    - binds E. apply ret_inv in E as [-> ->]. apply peek_inv in E0 as (-> & _).
      apply span_inv in E3 as (x3 & E3 & ->). pos_le E3.
      assert (M1 : (pos j0 <= pos j1)%N).
      { eapply mono_le; [|exact E2]. destruct a; np. }
      assert (M0 : (pos i <= pos j0)%N) by (eapply mono_le; [|exact E1]; np).
      cbn [body_in]. split; [|apply raw_with_span_in, sp_in_pair; nlia].
      apply forallb_Forall.
      eapply (winP_separated0 (fun lo hi it => item_in lo hi it = true) (array_value value_rec) (byte_ ARRAY_SEP)); [exact Mav|np|apply array_value_win|exact E1|nlia|nlia].
  Qed.

  Lemma array_win : winP body_in (array value_rec).
  Proof.
    pose proof (array_values_mono _ Hm) as Mav.
    intros lo hi i v i' E L U. unfold array in E. binds E. apply ret_inv in E as [-> ->].
    apply cut_err_inv in E1. pos_le E0. pos_le E2. eapply array_values_win; [exact E1|nlia|nlia].
  Qed.

  Lemma inline_keyval_win : winP pair_in (inline_keyval value_rec).
  Proof. rewrite inline_keyval_of. apply keyval_of_win; [exact Hm|np|exact Hw|apply winP_span_; np]. Qed.

  Lemma inline_kvs_win :
    winP (fun lo hi x => Forall (pair_in lo hi) (fst x) /\ raw_in lo hi (snd x) = true) (inline_kvs value_rec).
  Proof.
    pose proof (inline_keyval_mono _ Hm) as Mk.
    intros lo hi i x i' E L U. unfold inline_kvs in E. binds E. apply ret_inv in E as [-> ->]. cbn [fst snd].
    apply span_inv in E1 as (x1 & E1 & ->). pos_le E1.
    assert (M0 : (pos i <= pos j)%N) by (eapply mono_le; [|exact E0]; np).
    split; [|apply raw_with_span_in, sp_in_pair; nlia].
    eapply (winP_separated0 pair_in (inline_keyval value_rec) (byte_ INLINE_TABLE_SEP)); [exact Mk|np|apply inline_keyval_win|exact E0|nlia|nlia].
  Qed.

  Lemma inline_body_win : winP body_in (inline_body value_rec).
  Proof.
    unfold inline_body. eapply winP_try_map; [apply inline_kvs_win|].
    intros lo hi [kv p] v [H1 H2] E. cbn [fst snd] in *.
    destruct (table_from_pairs_in _ _ _ _ _ H1 H2 E) as (items & -> & Hi). cbn [body_in]. auto.
  Qed.

  Lemma inline_table_win : winP body_in (inline_table value_rec).
  Proof.
    pose proof (inline_body_mono _ Hm) as Mb.
    intros lo hi i v i' E L U. rewrite inline_table_eq in E. binds E. apply ret_inv in E as [-> ->].
    apply cut_err_inv in E1. pos_le E0. pos_le E2. eapply inline_body_win; [exact E1|nlia|nlia].
  Qed.

  Lemma winP_scalar {A} (p : parser A) (f : A -> scalar) : winP body_in (pmap (fun x => scalar_value (f x)) p).
  Proof. eapply winP_pmap; [apply winP_true|]. intros lo hi a _. reflexivity. Qed.

  Lemma value_body_win : winP body_in (value_body value_rec).
  Proof.
    unfold value_body. apply winP_bind_r; [np|]. intro b.
    repeat match goal with |- winP _ (if ?c then _ else _) => destruct c end;
      repeat apply winP_context; repeat apply winP_alt;
      try (apply winP_scalar); try apply winP_fail.
    - apply winP_check_recursion, array_win.
    - apply winP_check_recursion, inline_table_win.
  Qed.

  (* value.rs: value = value_body.with_span().map(apply_raw): the span stored is the window consumed *)
  Lemma value_step_exact i v i' :
    value_step value_rec i = Ok v i' ->
    exists v0, value_body value_rec i = Ok v0 i' /\ v = apply_raw v0 (pos i, pos i').
  Proof.
    unfold value_step. intro E. apply pmap_inv in E as ([v0 sp] & E & ->). apply with_span_inv in E as (x' & E & S).
    injection S as <- ->. eauto.
  Qed.

  Lemma apply_raw_in lo hi a b v :
    body_in a b v -> (lo <= a)%N -> (a <= b)%N -> (b <= hi)%N -> value_in lo hi (apply_raw v (a, b)) = true.
  Proof.
    intros H L M U. unfold apply_raw.
    destruct v as [s [r|] d|vals tr c d [sp|]|items pre im dt d [sp|]]; cbn [body_in] in H; try contradiction;
      cbn [value_decorate value_in].
    - rewrite decor_in_new by reflexivity. rewrite andb_true_r. cbn [oraw_in]. apply raw_with_span_in, sp_in_pair; nlia.
    - destruct H as [H1 H2]. apply andb4. split; [|split; [|split; [reflexivity|cbn [osp_in]; apply sp_in_pair; nlia]]].
      + apply forallb_Forall. apply forallb_Forall in H1. eapply Forall_impl; [|exact H1]. intro it. apply item_in_mono; nlia.
      + eapply raw_in_mono; [| |exact H2]; nlia.
    - destruct H as [H1 H2]. apply andb4. split; [|split; [|split; [reflexivity|cbn [osp_in]; apply sp_in_pair; nlia]]].
      + eapply items_in_mono; [| |exact H1]; nlia.
      + eapply raw_in_mono; [| |exact H2]; nlia.
  Qed.

  Lemma value_step_win : winP (fun lo hi v => value_in lo hi v = true) (value_step value_rec).
  Proof.
    intros lo hi i v i' E L U. apply value_step_exact in E as (v0 & E & ->).
    pose proof (mono_le _ _ _ _ (value_body_mono _ Hm) E).
    apply apply_raw_in; [|nlia|nlia|nlia]. eapply value_body_win; [exact E|nlia|nlia].
  Qed.
End Knot.

(* ---- tying the knot ----------------------------------------------------------------------------------------- *)
Lemma value_f_win n : winP (fun lo hi v => value_in lo hi v = true) (value_f n).
Proof.
  induction n as [|n IH].
  - cbn [value_f]. apply winP_const_panic.
  - change (value_f (S n)) with (value_step (value_f n)). apply value_step_win; [apply value_f_all|exact IH].
Qed.
Lemma value_win : winP (fun lo hi v => value_in lo hi v = true) value_.
Proof. intros lo hi i v i' E. eapply value_f_win, E. Qed.
