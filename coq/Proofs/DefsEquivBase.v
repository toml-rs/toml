(* Proofs/DefsEquivBase.v — C09: model-side statement runner, the abstraction from the
   toml_edit tree to the spec tree, and its elementary algebra. *)
From TV Require Import Base.Prelude Model.Tree Model.Parse Model.Document Spec.Defs.

(* ---- model statements and their erasure ---------------------------------------------- *)
(* Paths are non-empty by construction (pre ++ [last]), as the grammar guarantees
   (`key` = separated1; fix_key_path / pop_key panic sites otherwise). *)
Inductive mstmt : Set :=
| MHeader (arr : bool) (pre : list key) (last : key) (trailing sp : N * N)
| MKeyVal (pre : list key) (k : key) (v : value).

Definition keys (p : list key) : list bytes := map k_key p.

Definition erase (m : mstmt) : stmt value :=
  match m with
  | MHeader false pre k _ _ => SHeader (keys pre ++ [k_key k])
  | MHeader true pre k _ _ => SArrHeader (keys pre ++ [k_key k])
  | MKeyVal pre k v => SKeyVal (keys pre ++ [k_key k]) v
  end.

Definition mstep (st : pstate) (m : mstmt) : cres pstate :=
  match m with
  | MHeader arr pre k tr sp => on_header arr st (pre ++ [k]) tr sp
  | MKeyVal pre k v => on_keyval st pre k (IValue v)
  end.

Fixpoint mfold (st : pstate) (ms : list mstmt) : cres pstate :=
  match ms with
  | [] => COk st
  | m :: tl => match mstep st m with COk st' => mfold st' tl | CErr c => CErr c | CPanic s => CPanic s end
  end.

(* fold the statements from ParseState::new(), then into_document's finalize_table *)
Definition run_state (ms : list mstmt) : cres tbl :=
  match mfold state_new ms with
  | COk st => match finalize_table st with
              | COk st' => COk (st_root st')
              | CErr c => CErr c
              | CPanic s => CPanic s
              end
  | CErr c => CErr c
  | CPanic s => CPanic s
  end.

(* ---- abstraction ----------------------------------------------------------------------- *)
(* flags -> kind.  (implicit=false, dotted=true) is never produced by the parser; it behaves
   like a defined table in every test of state.rs that the proofs meet. *)
Definition kind_of (t : tbl) : kind :=
  if t_implicit t then (if t_dotted t then KDotted else KSuper) else KHeader.

(* forget decor, spans, positions, key spellings; Item::None (never stored by the parser,
   excluded by `mok` below) is sent to an arbitrary node *)
Fixpoint abs_tbl (t : tbl) : stree value :=
  let 'Tbl items _ _ _ _ _ := t in
  (fix go (l : list (key * item)) : stree value :=
     match l with
     | [] => []
     | (k, it) :: tl => (k_key k, abs_item it) :: go tl
     end) items
with abs_item (it : item) : node value :=
  match it with
  | INone => NAot []
  | IValue v => NVal v
  | ITable t => NTab (kind_of t) (abs_tbl t)
  | IAot ts _ =>
    NAot ((fix go (l : list tbl) : list (stree value) :=
             match l with [] => [] | t :: tl => abs_tbl t :: go tl end) ts)
  end.

Definition abs_kv (kv : key * item) : bytes * node value := (k_key (fst kv), abs_item (snd kv)).
Definition abs_items (m : kvs) : stree value := map abs_kv m.

Lemma abs_tbl_eq t : abs_tbl t = abs_items (t_items t).
Proof.
  destruct t as [items d im dt p s]. cbn [abs_tbl t_items]. unfold abs_items.
  induction items as [|[k it] tl IH]; [reflexivity|]. cbn [map abs_kv fst snd]. f_equal. exact IH.
Qed.

Lemma abs_item_aot ts sp : abs_item (IAot ts sp) = NAot (map abs_tbl ts).
Proof.
  reflexivity.
Qed.

(* ---- what the parser never stores: Item::None, dotted array elements -------------------- *)
Fixpoint mok_tbl (t : tbl) : bool :=
  let 'Tbl items _ _ _ _ _ := t in
  (fix go (l : list (key * item)) : bool :=
     match l with [] => true | (_, it) :: tl => mok_item it && go tl end) items
with mok_item (it : item) : bool :=
  match it with
  | INone => false
  | IValue _ => true
  | ITable t => mok_tbl t
  | IAot ts _ =>
    (fix go (l : list tbl) : bool :=
       match l with [] => true | t :: tl => negb (t_dotted t) && mok_tbl t && go tl end) ts
  end.

Definition mok_items (m : kvs) : bool := forallb (fun kv => mok_item (snd kv)) m.
Definition mok_elem (t : tbl) : bool := negb (t_dotted t) && mok_tbl t.

Lemma mok_tbl_eq t : mok_tbl t = mok_items (t_items t).
Proof.
  destruct t as [items d im dt p s]. cbn [mok_tbl t_items]. unfold mok_items.
  induction items as [|[k it] tl IH]; [reflexivity|]. cbn [forallb snd]. f_equal. exact IH.
Qed.

Lemma mok_item_aot ts sp : mok_item (IAot ts sp) = forallb mok_elem ts.
Proof.
  cbn [mok_item]. induction ts as [|t tl IH]; [reflexivity|]. cbn [forallb]. rewrite <- IH. reflexivity.
Qed.

(* ---- builders for Examples and tests: one-letter keys, no decoration ------------------------ *)
Definition tkey (b : byte) : key := mkKey [b] None decor_default decor_default.
Definition tval (i : Z) : value := VScalar (SInt i) None decor_default.
Definition m_hdr (arr : bool) (p : list byte) : mstmt :=
  match pop_key (map tkey p) with
  | Some (pre, k) => MHeader arr pre k (0, 0)%N (0, 0)%N
  | None => MHeader arr [] (tkey x00) (0, 0)%N (0, 0)%N
  end.
Definition m_kv (p : list byte) (v : value) : mstmt :=
  match pop_key (map tkey p) with
  | Some (pre, k) => MKeyVal pre k v
  | None => MKeyVal [] (tkey x00) v
  end.
