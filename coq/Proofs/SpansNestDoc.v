(* Proofs/SpansNestDoc.v — C14, nesting: every successfully parsed document satisfies `tnest`
   (Proofs/SpansDefs.v): values inside arrays / inline tables lie inside their container, keys and
   values of a table section inside the table's span, tables made of dotted keys cover their keys and
   values, elements of an array of tables lie inside the array's span. *)
From TV Require Import Base.Prelude Base.Winnow.
From TV Require Import Model.Trivia Model.Tree Model.Parse Model.Document.
From TV Require Import Proofs.NoPanicBase Proofs.NoPanicLex Proofs.NoPanicValue.
From TV Require Import Proofs.SpansDefs Proofs.SpansBase Proofs.SpansState Proofs.SpansDoc
                       Proofs.SpansExact Proofs.SpansNestInline Proofs.SpansNestValue Proofs.SpansNestState.
From TV Require Import Proofs.DocumentOps.
Require Import Lia ZifyBool ZifyN ZifyNat.

Definition st_ok (p : N) (st : pstate) : Prop := st_in p st /\ st_nest st.
Definition stP2 : (pstate -> parser pstate) -> Prop := stI (fun i st => st_ok (pos i) st).

Lemma keyval_stP2 : stP2 keyval.
Proof.
  intros st i st' i' E [Hin Hn]. split; [eapply keyval_stP; eauto|].
  unfold keyval in E. apply try_map_inv in E as ([path [k v]] & E & G). apply lift_state_ok in G.
  rewrite parse_keyval_of in E.
  destruct (keyval_of_nest value_ (context line_trailing) ltac:(np) value_nest (fun i v i' F => proj1 (value_exact i v i' F))
                              _ _ _ _ _ E) as (mid & av & e & v' & -> & Hch & Sv & L1 & L2 & Hv).
  eapply (on_keyval_sp_nest (pos i) (pos i) mid av e); [exact Hin|exact Hn|apply N.le_refl|exact Hch|exact Sv|exact L1|exact L2|exact Hv|exact G].
Qed.

Lemma header_stP2 ia : stP2 (header ia).
Proof.
  intros st i st' i' E [Hin Hn]. split; [eapply header_stP; eauto|].
  rewrite header_eq in E. apply try_map_inv in E as ([[hd sp] t] & E & G).
  apply lift_state_ok in G. unfold header_syntax in E. cbv zeta in E. unfold pair_ in E.
  apply bind_inv in E as (a & j & E0 & E). apply bind_inv in E as (a0 & j0 & E1 & E).
  apply ret_inv in E as [X ->]. inversion X; subst a a0. clear X.
  apply with_span_inv in E0 as (x' & E0 & S). injection S as <- ->.
  eapply on_header_nest; [exact Hin|exact Hn|exact G].
Qed.

Lemma on_ws_stP2 {A} (p : parser A) : mono p -> stP2 (fun st => pmap (on_ws st) (span_ p)).
Proof.
  intros Mp st i st' i' E [Hin Hn]. split; [eapply (on_ws_stP p Mp); eauto|].
  apply pmap_inv in E as (sp & E & ->). apply st_nest_on_ws, Hn.
Qed.
Lemma parse_ws_stP2 : stP2 parse_ws. Proof. apply (on_ws_stP2 ws). np. Qed.
Lemma parse_newline_stP2 : stP2 parse_newline. Proof. apply (on_ws_stP2 newline). np. Qed.
Lemma parse_comment_stP2 : stP2 parse_comment. Proof. apply (on_ws_stP2 (comment ;;; context line_ending)). np. Qed.

Lemma document_ok i st i' : document i = Ok st i' -> st_ok (pos i') st.
Proof.
  apply (document_stI (fun j st => st_ok (pos j) st) parse_ws_stP2 parse_newline_stP2 parse_comment_stP2 keyval_stP2 header_stP2).
  intros o j _. split; [eapply st_in_mono; [|apply st_in_new]; lia|apply st_nest_new].
Qed.

(* C14, nesting *)
Theorem parse_document_nest s d : parse_document s = POk d -> tnest (doc_root d) = true.
Proof.
  intro H. apply parse_document_run in H as (fin & i & st' & E & R & F & ->). apply document_ok in E as [Hin Hn].
  cbn [doc_root]. eapply tnestH_tnest, finalize_nest; eauto.
Qed.

(* what `tnest` says, spelled out for the two kinds of container *)
Lemma vnest_array_elem vals tr c d a b it :
  vnest (VArray vals tr c d (Some (a, b))) = true -> In it vals ->
  item_in a b it = true /\ inest it = true.
Proof.
  rewrite vnest_array. intros H Hin. apply andb_true_iff in H as [H1 H2]. apply andb_true_iff in H1 as [H1 _].
  rewrite forallb_forall in H1, H2. auto.
Qed.
Lemma tnest_value_entry items d im dt p a b k v :
  tnest (Tbl items d im dt p (Some (a, b))) = true -> In (k, IValue v) items ->
  kspan_in a b k = true /\ osp_in a b (value_span v) = true /\ vnest v = true.
Proof.
  intros H Hin.
  rewrite tnest_eq in H.
  apply andb_true_iff in H as [_ H]. rewrite forallb_forall in H. specialize (H _ Hin). cbn [snd fst] in H.
  unfold tn_value in H. apply andb_true_iff in H as [H1 H2]. apply andb_true_iff in H1 as [H1 H3]. auto.
Qed.

(* ---- a stronger reading that is false ------------------------------------------------------------------------ *)
(* "[t.a.q]\n[t]\na.b.y = 2\n[t.a]\nz = 1\n" *)
Definition dotted_outside_witness : bytes :=
  [x5b;x74;x2e;x61;x2e;x71;x5d;x0a; x5b;x74;x5d;x0a; x61;x2e;x62;x2e;x79;x20;x3d;x20;x32;x0a;
   x5b;x74;x2e;x61;x5d;x0a; x7a;x20;x3d;x20;x31;x0a].
Lemma dotted_inside_refuted :
  exists s d, parse_document s = POk d /\ dotted_inside (doc_root d) = false /\ tnest (doc_root d) = true.
Proof.
  exists dotted_outside_witness. destruct (parse_document dotted_outside_witness) as [d| |] eqn:E.
  - exists d. split; [reflexivity|]. revert E. vm_compute. intro E. inversion E; subst d. split; reflexivity.
  - exfalso. revert E. vm_compute. discriminate.
  - exfalso. revert E. vm_compute. discriminate.
Qed.
