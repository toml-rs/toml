(* Proofs/WFSem.v — WF backbone, specification side, part 1: key/value statements with dotted keys.

   A "dotted forest" is what the key/value lines of one section (or the pairs of one inline table) define: values,
   and tables made of dotted keys holding dotted forests.  Flattened into (key path, value) pairs — as the
   printer flattens it — and folded with `insert_kv` of Spec/Defs.v, it gives itself back, appended to what the
   table held before (under fresh keys). *)
From TV Require Import Base.Prelude Spec.Defs Proofs.DefsEquivSpec.
Require Import Lia.

Section DF.
  Variable V : Type.
  Local Notation T := (stree V).

  (* a dotted forest *)
  Inductive dnode : Type :=
  | DV (v : V)
  | DT (l : list (bytes * dnode)).

  Fixpoint dflat_node (k : bytes) (n : dnode) : list (list bytes * V) :=
    match n with
    | DV v => [([k], v)]
    | DT l => map (fun pv => (k :: fst pv, snd pv)) (flat_map (fun kn => dflat_node (fst kn) (snd kn)) l)
    end.
  Definition dflat (l : list (bytes * dnode)) : list (list bytes * V) :=
    flat_map (fun kn => dflat_node (fst kn) (snd kn)) l.

  Fixpoint dres_node (n : dnode) : node V :=
    match n with
    | DV v => NVal v
    | DT l => NTab KDotted (map (fun kn => (fst kn, dres_node (snd kn))) l)
    end.
  Definition dres (l : list (bytes * dnode)) : T := map (fun kn => (fst kn, dres_node (snd kn))) l.

  (* well-formed: keys distinct at every level, every table has an entry *)
  Inductive dwf_node : dnode -> Prop :=
  | dwf_v v : dwf_node (DV v)
  | dwf_t l : l <> [] -> NoDup (map fst l) -> Forall dwf_node (map snd l) -> dwf_node (DT l).
  Definition dwf (l : list (bytes * dnode)) : Prop := NoDup (map fst l) /\ Forall dwf_node (map snd l).

  Lemma dwf_node_strong (P : dnode -> Prop) :
    (forall v, P (DV v)) ->
    (forall l, l <> [] -> NoDup (map fst l) -> Forall dwf_node (map snd l) -> Forall P (map snd l) -> P (DT l)) ->
    forall n, dwf_node n -> P n.
  Proof.
    intros H1 H2. fix IH 2. intros n Hn. destruct Hn as [v | l Hne Hnd Hl]; [apply H1|].
    apply H2; auto. induction Hl; constructor; [apply IH; assumption|assumption].
  Qed.

  (* ---- folding key/value pairs ---------------------------------------------------------------------------------- *)
  Lemma inline_fold_app (t : T) a b :
    inline_fold t (a ++ b) = rbind (inline_fold t a) (fun t' => inline_fold t' b).
  Proof.
    revert t. induction a as [|[p v] a IH]; intro t; cbn [app inline_fold]; [reflexivity|].
    destruct (insert_kv true p v t); cbn [rbind]; auto.
  Qed.

  Lemma insert_kv_cons strict k k1 p1 v (t : T) :
    insert_kv strict (k :: k1 :: p1) v t =
    match sget t k with
    | None => rbind (insert_kv strict (k1 :: p1) v []) (fun c => ROk (spush t k (NTab KDotted c)))
    | Some (NTab KDotted c) => rbind (insert_kv strict (k1 :: p1) v c) (fun c' => ROk (sset t k (NTab KDotted c')))
    | Some (NTab KSuper c) =>
      if strict then RUndecided
      else match p1 with
           | [] => RInvalid
           | _ => rbind (insert_kv strict (k1 :: p1) v c) (fun c' => ROk (sset t k (NTab KSuper c')))
           end
    | Some _ => RInvalid
    end.
  Proof. reflexivity. Qed.

  (* pairs below the dotted table k, which exists and holds c *)
  Lemma fold_under k : forall ps c c' (t : T),
    Forall (fun pv => fst pv <> []) ps ->
    inline_fold c ps = ROk c' -> sget t k = Some (NTab KDotted c) ->
    inline_fold t (map (fun pv => (k :: fst pv, snd pv)) ps) = ROk (sset t k (NTab KDotted c')).
  Proof.
    induction ps as [|[p v] ps IH]; intros c c' t Hne H G; cbn [map inline_fold fst snd] in *.
    - inversion H; subst. rewrite (sset_same _ _ _ G). reflexivity.
    - inversion Hne as [|? ? Hp Hps]; subst. cbn [fst] in Hp. destruct p as [|k1 p1]; [congruence|].
      destruct (insert_kv true (k1 :: p1) v c) as [c1| |] eqn:I; cbn [rbind] in H; try discriminate.
      rewrite insert_kv_cons, G, I. cbn [rbind].
      rewrite (IH c1 c' (sset t k (NTab KDotted c1)) Hps H); [rewrite sset_sset; reflexivity|]. rewrite sget_sset_same, G. reflexivity.
  Qed.
  (* ... which does not exist yet *)
  Lemma fold_new k : forall ps c' (t : T),
    ps <> [] -> Forall (fun pv => fst pv <> []) ps ->
    inline_fold [] ps = ROk c' -> sget t k = None ->
    inline_fold t (map (fun pv => (k :: fst pv, snd pv)) ps) = ROk (spush t k (NTab KDotted c')).
  Proof.
    intros [|[p v] ps] c' t Hn Hne H G; [congruence|]. cbn [map inline_fold fst snd] in *.
    inversion Hne as [|? ? Hp Hps]; subst. cbn [fst] in Hp. destruct p as [|k1 p1]; [congruence|].
    destruct (insert_kv true (k1 :: p1) v []) as [c1| |] eqn:I; cbn [rbind] in H; try discriminate.
    rewrite insert_kv_cons, G, I. cbn [rbind].
    rewrite (fold_under k ps c1 c' (spush t k (NTab KDotted c1)) Hps H (sget_spush_same _ _ _ G)).
    rewrite (sset_spush _ _ _ _ G). reflexivity.
  Qed.

  Lemma dflat_node_paths k n : Forall (fun pv => fst pv <> []) (dflat_node k n).
  Proof.
    destruct n as [v|l]; cbn [dflat_node]; [constructor; [discriminate|constructor]|].
    apply Forall_forall. intros pv Hin. apply in_map_iff in Hin as (x & <- & _). discriminate.
  Qed.
  Lemma dflat_paths l : Forall (fun pv => fst pv <> []) (dflat l).
  Proof.
    unfold dflat. induction l as [|[k n] l IH]; [constructor|]. cbn [flat_map fst snd]. apply Forall_app. split; [apply dflat_node_paths|exact IH].
  Qed.
  Lemma dflat_node_nonempty : forall n, dwf_node n -> forall k, dflat_node k n <> [].
  Proof.
    apply (dwf_node_strong (fun n => forall k, dflat_node k n <> [])).
    - intros v k. discriminate.
    - intros l Hne Hnd Hl IH k. cbn [dflat_node]. destruct l as [|[k1 n1] l]; [congruence|].
      cbn [flat_map fst snd map] in *. inversion IH as [|? ? H1 _]; subst.
      intro E. apply map_eq_nil in E. apply app_eq_nil in E as [E _]. exact (H1 k1 E).
  Qed.

  (* the pairs of a well-formed dotted forest, folded into a table that has none of its keys, append the forest *)
  Definition node_folds (n : dnode) : Prop :=
    forall k (t : T), sget t k = None -> inline_fold t (dflat_node k n) = ROk (spush t k (dres_node n)).

  Lemma dfold_list : forall l, NoDup (map fst l) -> Forall node_folds (map snd l) ->
    forall acc : T, (forall x, In x (map fst l) -> ~ In x (map fst acc)) ->
    inline_fold acc (dflat l) = ROk (acc ++ dres l).
  Proof.
    unfold dflat, dres. induction l as [|[k1 n1] l IHl]; intros Hnd IH acc Hd; cbn [flat_map map fst snd].
    - rewrite app_nil_r. reflexivity.
    - cbn [map fst snd] in Hnd, IH. inversion Hnd as [|? ? Hk1 Hnd']; subst. inversion IH as [|? ? H1 IH']; subst.
      rewrite inline_fold_app. rewrite (H1 k1 acc); [|apply sget_none_notin, Hd; left; reflexivity]. cbn [rbind].
      rewrite (IHl Hnd' IH').
      + unfold spush. rewrite <- app_assoc. reflexivity.
      + intros x Hx. unfold spush. rewrite map_app. cbn [map fst]. intro Hin. apply in_app_or in Hin as [Hin|[<-|[]]].
        * exact (Hd x (or_intror Hx) Hin).
        * exact (Hk1 Hx).
  Qed.

  Lemma dflat_nonempty l : l <> [] -> Forall dwf_node (map snd l) -> dflat l <> [].
  Proof.
    destruct l as [|[k1 n1] l]; [congruence|]. intros _ Hl. cbn [map snd] in Hl. inversion Hl as [|? ? H1 _]; subst.
    unfold dflat. cbn [flat_map fst snd]. intro E. apply app_eq_nil in E as [E _]. exact (dflat_node_nonempty _ H1 k1 E).
  Qed.

  Lemma dfold_node : forall n, dwf_node n -> node_folds n.
  Proof.
    apply (dwf_node_strong node_folds).
    - intros v k t G. cbn [dflat_node inline_fold insert_kv dres_node]. rewrite G. reflexivity.
    - intros l Hne Hnd Hl IH k t G. cbn [dflat_node dres_node]. fold (dflat l). fold (dres l).
      apply fold_new; [apply dflat_nonempty; assumption|apply dflat_paths| |exact G].
      rewrite (dfold_list l Hnd IH []); [reflexivity|]. intros x _ [].
  Qed.

  Theorem dfold l (acc : T) : dwf l -> (forall x, In x (map fst l) -> ~ In x (map fst acc)) ->
    inline_fold acc (dflat l) = ROk (acc ++ dres l).
  Proof.
    intros [Hnd Hl] Hd. apply dfold_list; [exact Hnd| |exact Hd].
    clear -Hl. induction Hl; constructor; [apply dfold_node; assumption|assumption].
  Qed.
  Corollary dfold_run l : dwf l -> inline_run (dflat l) = Some (dres l).
  Proof. intro H. unfold inline_run. rewrite (dfold l [] H); [reflexivity|]. intros x _ []. Qed.
End DF.
Arguments DV {V}. Arguments DT {V}.

(* ---- changing the values of a dotted forest (used with W = unit for `aval_ok`) ------------------------------------ *)
Section DMap.
  Context {V W : Type}.
  Variable f : V -> W.
  Fixpoint dmap (n : dnode V) : dnode W :=
    match n with
    | DV v => DV (f v)
    | DT l => DT (map (fun kn => (fst kn, dmap (snd kn))) l)
    end.
  Definition dmapf (l : list (bytes * dnode V)) : list (bytes * dnode W) := map (fun kn => (fst kn, dmap (snd kn))) l.

  Lemma dmapf_keys l : map fst (dmapf l) = map fst l.
  Proof. unfold dmapf. rewrite map_map. reflexivity. Qed.

  Lemma dmap_flat_wf : forall n, dwf_node V n ->
    dwf_node W (dmap n) /\ forall k, dflat_node W k (dmap n) = map (fun pv => (fst pv, f (snd pv))) (dflat_node V k n).
  Proof.
    apply (dwf_node_strong V (fun n => dwf_node W (dmap n) /\
             forall k, dflat_node W k (dmap n) = map (fun pv => (fst pv, f (snd pv))) (dflat_node V k n))).
    - intro v. split; [constructor|reflexivity].
    - intros l Hne Hnd Hl IH. cbn [dmap]. fold (dmapf l). split.
      + constructor; [destruct l; [congruence|discriminate]|rewrite dmapf_keys; exact Hnd|].
        unfold dmapf. rewrite map_map. cbn [snd]. clear -IH. induction l as [|[k n] l IHl]; [constructor|].
        cbn [map snd] in *. inversion IH as [|? ? [H1 _] H2]; subst. constructor; auto.
      + intro k. cbn [dflat_node]. rewrite map_map. cbn [fst snd].
        assert (E : flat_map (fun kn => dflat_node W (fst kn) (snd kn)) (dmapf l)
                    = map (fun pv => (fst pv, f (snd pv))) (flat_map (fun kn => dflat_node V (fst kn) (snd kn)) l)).
        { clear -IH. unfold dmapf. induction l as [|[k1 n1] l IHl]; [reflexivity|]. cbn [map flat_map fst snd] in *.
          inversion IH as [|? ? [_ H1] H2]; subst. rewrite map_app, H1, IHl by exact H2. reflexivity. }
        rewrite E, map_map. reflexivity.
  Qed.
  Lemma dmapf_wf l : dwf V l -> dwf W (dmapf l).
  Proof.
    intros [Hnd Hl]. split; [rewrite dmapf_keys; exact Hnd|]. unfold dmapf. rewrite map_map. cbn [snd].
    clear -Hl. induction l as [|[k n] l IH]; [constructor|]. cbn [map snd] in *. inversion Hl; subst. constructor; [apply dmap_flat_wf; assumption|auto].
  Qed.
  Lemma dmapf_flat l : dwf V l -> dflat W (dmapf l) = map (fun pv => (fst pv, f (snd pv))) (dflat V l).
  Proof.
    intros [_ Hl]. unfold dflat, dmapf. induction l as [|[k n] l IH]; [reflexivity|]. cbn [map flat_map fst snd] in *.
    inversion Hl; subst. rewrite map_app, IH by assumption. f_equal. apply dmap_flat_wf. assumption.
  Qed.
End DMap.
