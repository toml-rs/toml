(* Proofs/StringsRTBasic.v — single-line tokens: basic strings (escaping writer), literal strings
   and bare keys are read back exactly. *)
From TV Require Import Base.Prelude Base.Utf8 Base.Winnow Gen.Consts.
From TV Require Import Model.Trivia Model.Strings Model.Tree Model.Parse Model.Write.
From TV Require Import Proofs.StringsRTDefs Proofs.StringsRTBase Proofs.StringsRTWrite Proofs.StringsRTEsc.
Require Import Lia ZifyBool ZifyN ZifyNat.

(* ---- basic_chars is a content parser ----------------------------------------------------------- *)
Lemma basic_chars_plain c X p d : c <> [] -> forallb plain c = true -> utf8_valid_b c = true -> hstop X ->
  basic_chars (mkIn (c ++ X) p d) = Ok c (after c X p d).
Proof.
  intros Hne Hc Hu HX. unfold basic_chars. apply alt_ok. unfold from_utf8, try_map, take_while1.
  rewrite take_while_yes.
  - rewrite Hu. reflexivity.
  - apply (forallb_impl plain); [apply plain_basic|exact Hc].
  - apply hstop_basic. exact HX.
  - destruct c; [congruence|cbn; lia].
Qed.

Lemma basic_chars_backslash X p d : 
  basic_chars (mkIn (x5c :: X) p d) = escaped (mkIn (x5c :: X) p d).
Proof.
  unfold basic_chars. eapply alt_bt. unfold from_utf8, try_map.
  rewrite take_while1_no; [reflexivity|]. reflexivity.
Qed.

Lemma basic_chars_simple c v X p d : assoc_byte ESCAPE_SIMPLE c = Some v -> esc_letter c ->
  basic_chars (mkIn (x5c :: c :: X) p d) = Ok (utf8_encode v) (after [x5c; c] X p d).
Proof. intros H _. rewrite basic_chars_backslash. apply escaped_simple. exact H. Qed.

Lemma basic_chars_hex b X p d : is_ctrl b = true ->
  basic_chars (mkIn (u_escape b ++ X) p d) = Ok [b] (after (u_escape b) X p d).
Proof.
  intro H. rewrite <- (escaped_hex b X p d H). unfold u_escape. cbn [app]. apply basic_chars_backslash.
Qed.

Lemma basic_chars_quote r p d : exists e i', basic_chars (mkIn (x22 :: r) p d) = Bt e i'.
Proof.
  unfold basic_chars, alt, from_utf8, try_map. rewrite take_while1_no by reflexivity.
  unfold escaped, preceded, ESCAPE. erewrite bind_bt; [eauto|]. apply byte_no. reflexivity.
Qed.

(* ---- basic_string ---------------------------------------------------------------------------- *)
Definition basic_token (s : bytes) : bytes := x22 :: enc false 0 s ++ [x22].

Lemma basic_string_rt s r p d : utf8_valid_b s = true ->
  basic_string (mkIn (basic_token s ++ r) p d) = Ok s (after (basic_token s) r p d).
Proof.
  intro Hu. unfold basic_token. cbn [app]. rewrite <- app_assoc. cbn [app].
  unfold basic_string, QUOTATION_MARK.
  rewrite (bind_ok _ _ _ _ _ (byte_yes x22 _ p d)).
  assert (Hc : chunks basic_chars (mkIn (enc false 0 s ++ x22 :: r) (p + 1) d)
               = Ok s (after (enc false 0 s) (x22 :: r) (p + 1) d)).
  { unfold chunks. cbn [rest].
    rewrite (content_run false basic_chars basic_chars_plain basic_chars_simple basic_chars_hex
               (fun H => False_ind _ (Bool.diff_false_true H)) _ s (x22 :: r) [] (p + 1)%N d); auto.
    - discriminate.
    - cbn. auto.
    - intros. apply basic_chars_quote. }
  rewrite (bind_ok _ _ _ _ _ Hc). unfold after at 1.
  rewrite (bind_ok _ _ _ _ _ (context_ok _ _ _ _ (cut_err_ok _ _ _ _ (byte_yes x22 r _ d)))).
  unfold ret. apply ok_inp; [reflexivity|]. unfold after. apply mkIn_eq; [reflexivity|].
  cbn [length]. rewrite app_length. cbn [length]. lia.
Qed.

(* ---- literal_string -------------------------------------------------------------------------- *)
Definition literal_token (s : bytes) : bytes := x27 :: s ++ [x27].

Lemma literal_string_rt s r p d :
  forallb (in_class LITERAL_CHAR) s = true -> utf8_valid_b s = true ->
  literal_string (mkIn (literal_token s ++ r) p d) = Ok s (after (literal_token s) r p d).
Proof.
  intros Hc Hu. unfold literal_token. cbn [app]. rewrite <- app_assoc. cbn [app].
  unfold literal_string, APOSTROPHE. apply context_ok. unfold from_utf8, try_map.
  rewrite (bind_ok _ _ _ _ _ (byte_yes x27 _ p d)).
  assert (Ht : cut_err (take_while0 (in_class LITERAL_CHAR)) (mkIn (s ++ x27 :: r) (p + 1) d)
               = Ok s (after s (x27 :: r) (p + 1) d)).
  { apply cut_err_ok. unfold take_while0. apply take_while_yes; [exact Hc|reflexivity|lia]. }
  rewrite (bind_ok _ _ _ _ _ Ht). unfold after at 1.
  rewrite (bind_ok _ _ _ _ _ (cut_err_ok _ _ _ _ (byte_yes x27 r _ d))).
  unfold ret. rewrite Hu. apply ok_inp; [reflexivity|]. unfold after. apply mkIn_eq; [reflexivity|].
  cbn [length]. rewrite app_length. cbn [length]. lia.
Qed.

(* ---- bare keys --------------------------------------------------------------------------------- *)
Lemma unquoted_key_rt s r p d : s <> [] -> forallb (in_class UNQUOTED_CHAR) s = true ->
  utf8_valid_b s = true -> stops (in_class UNQUOTED_CHAR) r ->
  unquoted_key (mkIn (s ++ r) p d) = Ok s (after s r p d).
Proof.
  intros Hne Hc Hu Hr. unfold unquoted_key, unchecked_utf8, take_while1.
  rewrite take_while_yes; [rewrite Hu; reflexivity|exact Hc|exact Hr|].
  destruct s; [congruence|cbn; lia].
Qed.

(* ---- simple_key: dispatch on the first byte, with the span of the token ------------------------- *)
Definition key_result (t s : bytes) (p : N) : raw * bytes :=
  (raw_with_span (p, (p + N.of_nat (length t))%N), s).

Lemma simple_key_dispatch (inner : parser bytes) b t' s r p d :
  (if byte_eqb b QUOTATION_MARK then basic_string
   else if byte_eqb b APOSTROPHE then literal_string else unquoted_key) = inner ->
  inner (mkIn ((b :: t') ++ r) p d) = Ok s (after (b :: t') r p d) ->
  simple_key (mkIn ((b :: t') ++ r) p d) = Ok (key_result (b :: t') s p) (after (b :: t') r p d).
Proof.
  intros Hd Hi. unfold simple_key, pmap, with_span, context.
  assert (Hp : peek any (mkIn ((b :: t') ++ r) p d) = Ok b (mkIn ((b :: t') ++ r) p d)).
  { cbn [app]. eapply peek_ok. apply any_cons. }
  rewrite (bind_ok _ _ _ _ _ Hp). rewrite Hd, Hi. reflexivity.
Qed.

Lemma simple_key_basic s r p d : utf8_valid_b s = true ->
  simple_key (mkIn (basic_token s ++ r) p d) = Ok (key_result (basic_token s) s p) (after (basic_token s) r p d).
Proof.
  intro Hu. unfold basic_token. apply (simple_key_dispatch basic_string); [reflexivity|].
  apply (basic_string_rt s r p d Hu).
Qed.

Lemma simple_key_literal s r p d :
  forallb (in_class LITERAL_CHAR) s = true -> utf8_valid_b s = true ->
  simple_key (mkIn (literal_token s ++ r) p d) = Ok (key_result (literal_token s) s p) (after (literal_token s) r p d).
Proof.
  intros Hc Hu. unfold literal_token. apply (simple_key_dispatch literal_string); [reflexivity|].
  apply (literal_string_rt s r p d Hc Hu).
Qed.

Lemma simple_key_unquoted s r p d : s <> [] -> forallb (in_class UNQUOTED_CHAR) s = true ->
  utf8_valid_b s = true -> stops (in_class UNQUOTED_CHAR) r ->
  simple_key (mkIn (s ++ r) p d) = Ok (key_result s s p) (after s r p d).
Proof.
  intros Hne Hc Hu Hr. destruct s as [|b t']; [congruence|].
  apply (simple_key_dispatch unquoted_key).
  - cbn [forallb] in Hc. apply andb_true_iff in Hc as [Hb _]. rewrite <- unquoted_class in Hb.
    destruct (unquoted_not_quote b Hb) as [H1 H2]. unfold QUOTATION_MARK, APOSTROPHE. rewrite H1, H2. reflexivity.
  - apply unquoted_key_rt; assumption.
Qed.
