(* Proofs/DepthWitness.v — lemmas behind Props/C05.v, part 6: the depth of a text read off a derivation.
   On a text with a derivation in the grammar of Spec/Syntax.v the parser is determined by the
   statements of that derivation (Proofs/GrammarDocReject.v, Proofs/GrammarValueComplete.v): the
   document tree carries the tree the definition rules build from them.  Here: the depth measure
   on that abstract tree, and that it is the depth of the parsed tree — so the depth of a witness
   document follows from its derivation and a run of the definition rules, without running the
   parser on its text. *)
From Coq Require Import List Bool Arith Lia.
From Coq.Strings Require Import Byte.
From TV Require Import Base.Prelude Base.Winnow Spec.Defs Spec.Syntax.
From TV Require Import Model.Tree Model.Parse Model.Document.
From TV Require Import Proofs.Eoi Proofs.SpansDefs Proofs.LexEquivBase Proofs.DefsEquivBase Proofs.DepthBase
                       Proofs.GrammarBase Proofs.GrammarValueBase Proofs.GrammarValueComplete
                       Proofs.GrammarDocReject.
Import ListNotations.

(* ---- depth of an abstract tree: tbl_depth, on the tree of Spec/Defs.v over data ------------------- *)
Fixpoint ndepth (n : node dval) : nat :=
  match n with
  | NVal v => ddepth v
  | NTab _ items => S (lmaxn (fun kn => ndepth (snd kn)) items)
  | NAot es => S (lmaxn (fun e => S (lmaxn (fun kn => ndepth (snd kn)) e)) es)
  end.
Definition sdepth (t : stree dval) : nat := S (lmaxn (fun kn => ndepth (snd kn)) t).

(* The abstraction sends what the parser never stores (Item::None, a table inside a value) to an
   empty array of tables resp. an empty table, which the depth measures of the model count
   differently.  A tree without those two is the image of stored items only. *)
Fixpoint dsolid (v : dval) : bool :=
  match v with
  | DArr l => forallb dsolid l
  | DTab items => match items with [] => false | _ => forallb (fun kv => dsolid (snd kv)) items end
  | _ => true
  end.
Fixpoint nsolid (n : node dval) : bool :=
  match n with
  | NVal v => dsolid v
  | NTab _ items => forallb (fun kn => nsolid (snd kn)) items
  | NAot es => match es with [] => false | _ => forallb (forallb (fun kn => nsolid (snd kn))) es end
  end.
Definition ssolid (t : stree dval) : bool := forallb (fun kn => nsolid (snd kn)) t.

Lemma dsolid_vwf v : dsolid (absv v) = true -> vwf v = true.
Proof.
  induction v as [s r d|vals tr c d sp IH|items pre im dt d sp IH] using GrammarValueBase.value_ind'; [reflexivity|..].
  - rewrite absv_array, vwf_array. cbn [dsolid]. rewrite !forallb_forall, Forall_forall in *.
    intros H it Hin. specialize (H _ (in_map absi _ _ Hin)). specialize (IH it Hin). destruct it; try discriminate. exact (IH H).
  - rewrite absv_inline, vwf_inline. cbn [dsolid]. unfold items_wf.
    destruct (map absi_kv items) eqn:E; [discriminate|]. rewrite <- E, !forallb_forall, Forall_forall in *.
    intros H kv Hin. specialize (H _ (in_map absi_kv _ _ Hin)). specialize (IH kv Hin).
    destruct kv as [k [|v| |]]; try discriminate. exact (IH H).
Qed.

Lemma tbl_depth_abs t : ssolid (smap absv (abs_tbl t)) = true -> tbl_depth t = sdepth (smap absv (abs_tbl t)).
Proof.
  pose (Pi := fun it => nsolid (nmap absv (abs_item it)) = true -> titem_depth it = ndepth (nmap absv (abs_item it))).
  assert (Hitems : forall items, Forall (fun kv : key * item => Pi (snd kv)) items ->
            ssolid (smap absv (abs_items items)) = true -> S (titems_depth items) = sdepth (smap absv (abs_items items))).
  { intros items IH H. unfold sdepth, ssolid, smap, abs_items, titems_depth in *. f_equal.
    rewrite forallb_forall in H. rewrite <- lmaxn_lmax, !lmaxn_map. apply lmaxn_ext_in.
    rewrite Forall_forall in IH. intros kv Hin. exact (IH kv Hin (H _ (in_map _ _ _ (in_map abs_kv _ _ Hin)))). }
  revert t.
  apply (tbl_ind' (fun _ => True) Pi (fun t => ssolid (smap absv (abs_tbl t)) = true -> tbl_depth t = sdepth (smap absv (abs_tbl t))));
    unfold Pi; try (intros; exact I).
  - discriminate.
  - intros v _ H. exact (value_depth_ddepth v (dsolid_vwf v H)).
  - intros t IH. cbn [abs_item]. rewrite nmap_tab. exact IH.
  - intros ts sp IH. rewrite abs_item_aot, nmap_aot, map_map. cbn [nsolid titem_depth ndepth].
    destruct (map (fun x => smap absv (abs_tbl x)) ts) eqn:E; [discriminate|]. rewrite <- E. clear E. intro H. f_equal.
    rewrite forallb_forall in H. rewrite <- lmaxn_lmax, lmaxn_map. apply lmaxn_ext_in.
    rewrite Forall_forall in IH. intros x Hin. exact (IH x Hin (H _ (in_map _ _ _ Hin))).
  - intros items d im dt p sp IH. rewrite tbl_depth_eq, abs_tbl_eq. apply Hitems, IH.
Qed.

(* ---- documents ------------------------------------------------------------------------------------ *)
(* the depth the definition rules give the statements of a derivation *)
Definition derived_depth (l : list astmt) : option nat :=
  match drun sstate0 l with
  | ROk (T, _) => if ssolid T then Some (sdepth T) else None
  | _ => None
  end.

Theorem document_depth_derived s l n : toml_text s l -> derived_depth l = Some n ->
  exists d, parse_document s = POk d /\ tbl_depth (doc_root d) = n.
Proof.
  intros Ht H. pose proof (parse_document_det s l Ht) as Hd. unfold derived_depth in H.
  destruct (drun sstate0 l) as [[T cp]| |]; try discriminate. destruct Hd as (d & Hd & <-).
  destruct (ssolid (abs_doc d)) eqn:Hs; [|discriminate]. injection H as <-.
  exists d. split; [exact Hd|]. apply tbl_depth_abs, Hs.
Qed.

(* a text that does not start with the byte-order mark *)
Lemma toml_text_plain s l : hd x00 s <> xef -> toml_tok s l -> toml_text s l.
Proof.
  intros Hb H. unfold toml_text, strip_bom. destruct s as [|b [|b1 [|b2 r]]]; try exact H.
  destruct (byte_eqb b xef) eqn:E; [apply byte_eqb_eq in E; contradiction|exact H].
Qed.

(* ---- values --------------------------------------------------------------------------------------- *)
Theorem value_depth_derived t a : val_tok t a ->
  if vgoodb 0 a then exists v, parse_value_raw t = POk v /\ value_depth v = ddepth (den a)
  else forall v, parse_value_raw t <> POk v.
Proof.
  intro Ht. assert (Hr : rest (new_input t) = t ++ []) by (rewrite app_nil_r; reflexivity).
  pose proof (value_det t a (new_input t) [] Ht Hr (ex_intro _ [] (ex_intro _ [] (conj eq_refl (conj eq_refl I))))) as H.
  unfold parse_value_raw. rewrite parse_all_eoi_unfold. change (depth (new_input t)) with 0 in H.
  destruct (vgoodb 0 a).
  - destruct H as (v & -> & Ha & _ & _ & Hw & _). rewrite (rest_adv t [] _ Hr).
    exists v. split; [reflexivity|]. rewrite (value_depth_ddepth v Hw), Ha. reflexivity.
  - destruct H as (e & j & ->). discriminate.
Qed.
