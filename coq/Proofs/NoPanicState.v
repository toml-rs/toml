(* Proofs/NoPanicState.v — C04, part 4: the ParseState machine (state.rs) never panics on a
   reachable state.  Discharges P_item_none, P_aot_empty, P_root_not_empty, P_debug_assert 0/1/2.

   Invariant `inv st`:
     * the detached current table is `good`: hereditarily no `Item::None`, no empty array of tables;
     * `fin_ok`: whatever good table the current one has become, `finalize_table` does not panic and
       leaves a good root, an empty current table and an empty path.
   The second clause hides the one delicate moment: `start_array_table` inserts an EMPTY array of
   tables at the header's path, filled only by the next `finalize_table`.  Between the two only
   `on_keyval` runs, on the detached current table, so no descent can reach the empty array; and
   `finalize_table` descends along the parent path only and meets it at the leaf
   (`aot_two_descents`). *)
From TV Require Import Base.Prelude.
From TV Require Import Model.Tree Model.Parse Model.Document.
From TV Require Import Proofs.KvFacts.
From TV Require Import Proofs.DocumentOps.
Require Import Lia.

(* ---- association lists all of whose items pass a test ------------------------------------------------ *)
Section KvsAll.
  Variable q : item -> bool.
  Definition kvs_all (m : kvs) : bool := forallb (fun kv => q (snd kv)) m.

  Lemma kvs_all_get m k k' it : kvs_all m = true -> kv_get m k = Some (k', it) -> q it = true.
  Proof. exact (kv_get_forallb (fun kv => q (snd kv)) m k k' it). Qed.
  Lemma kvs_all_push m k v : kvs_all m = true -> q v = true -> kvs_all (kv_push m k v) = true.
  Proof. exact (kv_push_forallb (fun kv => q (snd kv)) m k v). Qed.
  Lemma kvs_all_set m k v : kvs_all m = true -> q v = true -> kvs_all (kv_set m k v) = true.
  Proof. intros H Hv. apply kv_set_forallb; [exact H|]. intros; exact Hv. Qed.
  Lemma kvs_all_remove m k : kvs_all m = true -> kvs_all (kv_remove m k) = true.
  Proof. exact (kv_remove_forallb (fun kv => q (snd kv)) m k). Qed.
End KvsAll.


Fixpoint good_item (it : item) : bool :=
  match it with
  | INone => false
  | IValue _ => true
  | ITable t => good_tbl t
  | IAot ts _ => match ts with [] => false | _ => true end && forallb good_tbl ts
  end
with good_tbl (t : tbl) : bool :=
  match t with Tbl items _ _ _ _ _ => forallb (fun kv => good_item (snd kv)) items end.

Definition good_items : kvs -> bool := kvs_all good_item.

Lemma good_tbl_items t : good_tbl t = good_items (t_items t).
Proof. destruct t; reflexivity. Qed.
Lemma good_set_items t m : good_tbl (t_set_items t m) = good_items m.
Proof. destruct t; reflexivity. Qed.
Lemma good_set_span t s : good_tbl (t_set_span t s) = good_tbl t.
Proof. destruct t; reflexivity. Qed.
Lemma good_tbl_new : good_tbl tbl_new = true. Proof. reflexivity. Qed.


Lemma forallb_rev {A} (f : A -> bool) l : forallb f (rev l) = forallb f l.
Proof.
  induction l as [|a l IH]; [reflexivity|]. cbn [rev forallb]. rewrite forallb_app, IH. cbn. rewrite andb_true_r.
  apply andb_comm.
Qed.
Lemma rev_cons_ne {A} (a : A) l : match rev (a :: l) with [] => false | _ => true end = true.
Proof. cbn [rev]. destruct (rev l); reflexivity. Qed.

(* a good array of tables, seen through `rev` (descend_path works on the last table) *)
Lemma good_aot_rev ts sp last rinit :
  good_item (IAot ts sp) = true -> rev ts = last :: rinit -> good_tbl last = true /\ forallb good_tbl rinit = true.
Proof.
  cbn [good_item]. intros H R. apply andb_true_iff in H as [_ H]. rewrite <- forallb_rev, R in H.
  cbn [forallb] in H. apply andb_true_iff in H. exact H.
Qed.
Lemma good_aot_build last rinit sp :
  good_tbl last = true -> forallb good_tbl rinit = true -> good_item (IAot (rev (last :: rinit)) sp) = true.
Proof.
  intros H1 H2. cbn [good_item]. rewrite rev_cons_ne, forallb_rev. cbn [forallb]. rewrite H1, H2. reflexivity.
Qed.
Lemma good_aot_nonempty ts sp : good_item (IAot ts sp) = true -> rev ts <> [].
Proof.
  cbn [good_item]. intros H R. apply andb_true_iff in H as [H _]. destruct ts; [discriminate|].
  apply (f_equal (@length tbl)) in R. rewrite rev_length in R. discriminate.
Qed.

(* ---- descend_path on a good table ------------------------------------------------------------------- *)
Definition cres_ok {X} (Q : tbl -> X -> Prop) (r : cres (tbl * X)) : Prop :=
  match r with COk (t, x) => Q t x | CErr _ => True | CPanic _ => False end.

Lemma wta_good {X} (Q : X -> Prop) : forall path t dotted (f : tbl -> cres (tbl * X)),
  good_tbl t = true ->
  (forall p, good_tbl p = true -> cres_ok (fun p' x => good_tbl p' = true /\ Q x) (f p)) ->
  cres_ok (fun t' x => good_tbl t' = true /\ Q x) (with_table_at t path dotted f).
Proof.
  induction path as [|k ptl IH]; intros t dotted f Ht Hf; cbn [with_table_at]; [apply Hf, Ht|].
  pose proof Ht as Hi. rewrite good_tbl_items in Hi.
  destruct (kv_get (t_items t) (k_key k)) as [[k' it]|] eqn:G.
  - pose proof (kvs_all_get _ _ _ _ _ Hi G) as Hit. destruct it as [|v|sub|ts sp].
    + discriminate Hit.
    + exact I.
    + destruct (dotted && negb (t_implicit sub)); [exact I|].
      specialize (IH sub dotted f Hit Hf). destruct (with_table_at sub ptl dotted f) as [[sub' x]| |]; auto.
      destruct IH as [Hs Hq]. cbn [cres_ok]. split; [|exact Hq]. rewrite good_set_items.
      apply kvs_all_set; [exact Hi|exact Hs].
    + destruct (dotted && _); [exact I|].
      destruct (rev ts) as [|last rinit] eqn:R; [exact (good_aot_nonempty _ _ Hit R)|].
      destruct (good_aot_rev _ _ _ _ Hit R) as [Hl Hr].
      specialize (IH last dotted f Hl Hf). destruct (with_table_at last ptl dotted f) as [[last' x]| |]; auto.
      destruct IH as [Hs Hq]. cbn [cres_ok]. split; [|exact Hq]. rewrite good_set_items.
      apply kvs_all_set; [exact Hi|]. apply good_aot_build; assumption.
  - specialize (IH (Tbl [] decor_default true dotted None None) dotted f eq_refl Hf).
    destruct (with_table_at _ ptl dotted f) as [[sub' x]| |]; auto.
    destruct IH as [Hs Hq]. cbn [cres_ok]. split; [|exact Hq]. rewrite good_set_items.
    apply kvs_all_push; [exact Hi|exact Hs].
Qed.

(* descent alone never panics on a good table, whatever the closure builds *)
Lemma wta_nopanic {X} : forall path t dotted (f : tbl -> cres (tbl * X)),
  good_tbl t = true ->
  (forall p, good_tbl p = true -> forall s, f p <> CPanic s) ->
  forall s, with_table_at t path dotted f <> CPanic s.
Proof.
  induction path as [|k ptl IH]; intros t dotted f Ht Hf s; cbn [with_table_at]; [apply Hf, Ht|].
  pose proof Ht as Hi. rewrite good_tbl_items in Hi.
  destruct (kv_get (t_items t) (k_key k)) as [[k' it]|] eqn:G.
  - pose proof (kvs_all_get _ _ _ _ _ Hi G) as Hit. destruct it as [|v|sub|ts sp].
    + discriminate Hit.
    + discriminate.
    + destruct (dotted && negb (t_implicit sub)); [discriminate|].
      specialize (IH sub dotted f Hit Hf). destruct (with_table_at sub ptl dotted f) as [[sub' x]| |]; try discriminate.
      intro E; inversion E; subst. eapply IH; reflexivity.
    + destruct (dotted && _); [discriminate|].
      destruct (rev ts) as [|last rinit] eqn:R; [destruct (good_aot_nonempty _ _ Hit R)|].
      destruct (good_aot_rev _ _ _ _ Hit R) as [Hl Hr].
      specialize (IH last dotted f Hl Hf). destruct (with_table_at last ptl dotted f) as [[last' x]| |]; try discriminate.
      intro E; inversion E; subst. eapply IH; reflexivity.
  - specialize (IH (Tbl [] decor_default true dotted None None) dotted f eq_refl Hf).
    destruct (with_table_at _ ptl dotted f) as [[sub' x]| |]; try discriminate.
    intro E; inversion E; subst. eapply IH; reflexivity.
Qed.

(* ---- on_keyval ---------------------------------------------------------------------------------------- *)
Lemma on_keyval_ok st path k v :
  good_tbl (st_current st) = true -> good_item v = true ->
  match on_keyval st path k v with
  | COk st' => good_tbl (st_current st') = true /\ st_root st' = st_root st
               /\ st_path st' = st_path st /\ st_is_array st' = st_is_array st
  | CErr _ => True
  | CPanic _ => False
  end.
Proof.
  intros Hc Hv. rewrite on_keyval_eq.
  assert (W : cres_ok (fun t' (_ : unit) => good_tbl t' = true /\ True)
                      (with_table_at (kv_cur st v) path true (f_keyval (kv_key st k) v (path_empty path)))).
  { apply (wta_good (fun _ : unit => True)).
    - unfold kv_cur. destruct (t_span (st_current st)); [|exact Hc]. destruct (item_span v); [|exact Hc].
      rewrite good_set_span. exact Hc.
    - intros p Hp. unfold f_keyval. destruct (Bool.eqb _ _); [exact I|]. destruct (kv_get _ _); [exact I|].
      cbn [cres_ok]. split; [|exact I]. rewrite good_set_items. rewrite good_tbl_items in Hp.
      apply kvs_all_push; assumption. }
  destruct (with_table_at _ path true _) as [[cur' u]| |]; cbn [cres_ok] in W; auto.
  cbn [st_current st_root st_path st_is_array]. tauto.
Qed.

Lemma set_dotted_spans_good : forall path t ve, good_tbl t = true -> good_tbl (set_dotted_spans t path ve) = true.
Proof.
  induction path as [|k ptl IH]; intros t ve Ht; [exact Ht|].
  destruct (set_dotted_spans_cons t k ptl ve) as [->|(k0 & sub & sp & G & ->)]; [exact Ht|].
  pose proof Ht as Hi. rewrite good_tbl_items in Hi. pose proof (kvs_all_get _ _ _ _ _ Hi G) as Hit.
  rewrite good_set_items. apply kvs_all_set; [exact Hi|]. cbn [good_item]. apply IH. rewrite good_set_span. exact Hit.
Qed.

Lemma on_keyval_sp_ok st path k v :
  good_tbl (st_current st) = true -> good_item v = true ->
  match on_keyval_sp st path k v with
  | COk st' => good_tbl (st_current st') = true /\ st_root st' = st_root st
               /\ st_path st' = st_path st /\ st_is_array st' = st_is_array st
  | CErr _ => True
  | CPanic _ => False
  end.
Proof.
  intros Hc Hv. unfold on_keyval_sp. pose proof (on_keyval_ok st path k v Hc Hv) as H.
  destruct (on_keyval st path k v) as [st'| |]; auto. destruct H as (H1 & H2 & H3 & H4).
  cbn [st_current st_root st_path st_is_array]. repeat split; auto. apply set_dotted_spans_good, H1.
Qed.

(* ---- finalize_table / start_table / start_array_table -------------------------------------------------- *)
Definition fin_post (r : cres pstate) : Prop :=
  match r with
  | COk st' => good_tbl (st_root st') = true /\ st_current st' = tbl_new /\ st_path st' = []
  | CErr _ => True
  | CPanic _ => False
  end.
Definition fin_ok (root : tbl) (path : list key) (is_array : bool) : Prop :=
  forall tr pos cur, good_tbl cur = true -> fin_post (finalize_table (mkState root tr pos cur is_array path)).

Definition inv (st : pstate) : Prop :=
  good_tbl (st_current st) = true /\ fin_ok (st_root st) (st_path st) (st_is_array st).

Lemma inv_fin st : inv st -> fin_post (finalize_table st).
Proof. intros [Hc Hf]. destruct st as [root tr pos cur ia path]. apply Hf, Hc. Qed.

Lemma inv_state_new : inv state_new.
Proof.
  split; [reflexivity|]. intros tr pos cur Hc. unfold finalize_table. cbn. repeat split. exact Hc.
Qed.

Lemma inv_on_ws st sp : inv st -> inv (on_ws st sp).
Proof. intros [Hc Hf]. split; assumption. Qed.

(* a step of the state machine either refuses or yields a result satisfying `post`; it never panics *)
Definition cres_sat {A} (post : A -> Prop) (r : cres A) : Prop :=
  match r with COk a => post a | CErr _ => True | CPanic _ => False end.
Lemma cres_sat_ok {A} (post : A -> Prop) r a : cres_sat post r -> r = COk a -> post a.
Proof. intros H E. rewrite E in H. exact H. Qed.

Lemma inv_on_keyval_sp st path k v :
  inv st -> good_item v = true -> cres_sat inv (on_keyval_sp st path k v).
Proof.
  intros [Hc Hf] Hv. pose proof (on_keyval_sp_ok st path k v Hc Hv) as H.
  destruct (on_keyval_sp st path k v) as [st'| |]; auto. destruct H as (H1 & H2 & H3 & H4).
  split; [exact H1|]. rewrite H2, H3, H4. exact Hf.
Qed.



(* the header steps in the state finalize_table leaves: empty current table, empty path *)
Lemma start_table_fin st path dec sp ppath k :
  st_current st = tbl_new -> st_path st = [] -> pop_key path = Some (ppath, k) ->
  start_table st path dec sp =
  match with_table_at (st_root st) ppath false (f_start_std k) with
  | COk (root', tk) =>
    COk (open_table st root' (match tk with Some t => t | None => tbl_new end) path dec sp false)
  | CErr c => CErr c
  | CPanic s => CPanic s
  end.
Proof. intros Hc Hp Hpop. rewrite start_table_eq, Hc, Hp, Hpop. reflexivity. Qed.
Lemma start_array_table_fin st path dec sp ppath k :
  st_current st = tbl_new -> st_path st = [] -> pop_key path = Some (ppath, k) ->
  start_array_table st path dec sp =
  match with_table_at (st_root st) ppath false (f_start_aot k) with
  | COk (root', _) => COk (open_table st root' tbl_new path dec sp true)
  | CErr c => CErr c
  | CPanic s => CPanic s
  end.
Proof. intros Hc Hp Hpop. rewrite start_array_table_eq, Hc, Hp, Hpop. reflexivity. Qed.

Lemma finalize_eq root tr pos cur ia path ppath k :
  pop_key path = Some (ppath, k) ->
  finalize_table (mkState root tr pos cur ia path) =
  match with_table_at root ppath false (if ia then f_fin_aot k cur else f_fin_std k cur) with
  | COk (root', _) => COk (mkState root' tr pos tbl_new ia [])
  | CErr c => CErr c
  | CPanic s => CPanic s
  end.
Proof. intro H. rewrite finalize_table_eq. cbn [st_current st_path st_root st_is_array]. rewrite H. destruct ia; reflexivity. Qed.

Lemma f_fin_std_good k table p :
  good_tbl table = true -> good_tbl p = true ->
  cres_ok (fun p' (_ : unit) => good_tbl p' = true /\ True) (f_fin_std k table p).
Proof.
  intros Ht Hp. unfold f_fin_std. rewrite good_tbl_items in Hp.
  destruct (kv_get (t_items p) (k_key k)) as [[k' it]|] eqn:G.
  - destruct it as [|v|t|ts sp]; try exact I. destruct (t_implicit t); [|exact I].
    cbn [cres_ok]. split; [|exact I]. rewrite good_set_items. apply kvs_all_set; assumption.
  - cbn [cres_ok]. split; [|exact I]. rewrite good_set_items. apply kvs_all_push; assumption.
Qed.

Lemma good_aot_snoc ts sp sp' table :
  good_item (IAot ts sp) = true -> good_tbl table = true -> good_item (IAot (ts ++ [table]) sp') = true.
Proof.
  cbn [good_item]. intros H Ht. apply andb_true_iff in H as [_ H]. rewrite forallb_app, H. cbn [forallb].
  rewrite Ht. destruct ts; reflexivity.
Qed.

Lemma f_fin_aot_good k table p :
  good_tbl table = true -> good_tbl p = true ->
  cres_ok (fun p' (_ : unit) => good_tbl p' = true /\ True) (f_fin_aot k table p).
Proof.
  intros Ht Hp. unfold f_fin_aot. rewrite good_tbl_items in Hp.
  destruct (kv_get (t_items p) (k_key k)) as [[k' it]|] eqn:G.
  - pose proof (kvs_all_get _ _ _ _ _ Hp G) as Hit. destruct it as [|v|t|ts sp]; try exact I.
    cbv zeta. cbn [cres_ok]. split; [|exact I]. rewrite good_set_items. apply kvs_all_set; [exact Hp|].
    eapply good_aot_snoc; eassumption.
  - cbn [cres_ok]. split; [|exact I]. rewrite good_set_items. apply kvs_all_push; [exact Hp|].
    cbn [good_item forallb]. rewrite Ht. reflexivity.
Qed.

(* finalize_table from a good root (no pending empty array of tables) *)
Lemma fin_ok_good root (path : list key) (ia : bool) : good_tbl root = true -> path <> [] ->
  forall ppath k, pop_key path = Some (ppath, k) ->
  (forall cur, good_tbl cur = true ->
     cres_ok (fun p' (_ : unit) => good_tbl p' = true /\ True)
             (with_table_at root ppath false (if ia then f_fin_aot k cur else f_fin_std k cur))) ->
  fin_ok root path ia.
Proof.
  intros Hr Hp ppath k Hpop H tr pos cur Hc. rewrite (finalize_eq _ _ _ _ _ _ _ _ Hpop).
  specialize (H cur Hc). destruct (with_table_at root ppath false _) as [[root' u]| |]; cbn [cres_ok] in H; auto.
  cbn [fin_post st_root st_current st_path]. tauto.
Qed.

(* the empty array of tables inserted by start_array_table is met by finalize_table at the leaf only,
   which puts the finished table into it *)
Lemma aot_two_descents k ppath t t' x :
  good_tbl t = true ->
  with_table_at t ppath false (f_start_aot k) = COk (t', x) ->
  forall cur, good_tbl cur = true ->
  cres_ok (fun p' (_ : unit) => good_tbl p' = true /\ True) (with_table_at t' ppath false (f_fin_aot k cur)).
Proof.
  intros Ht H cur Hc. rewrite (wta_twice _ _ _ _ _ _ H). apply (wta_good (fun _ : unit => True)); [exact Ht|].
  intros p Hp. unfold f_start_aot. pose proof Hp as Hi. rewrite good_tbl_items in Hi.
  destruct (kv_get (t_items p) (k_key k)) as [[k' it]|] eqn:G.
  - destruct it as [|v|sub|ts sp]; try exact I. apply f_fin_aot_good; assumption.
  - unfold f_fin_aot. rewrite items_set_items, (kv_get_push_new _ _ _ G). cbv zeta. cbn [app cres_ok].
    split; [|exact I]. rewrite good_set_items, (kv_set_push_none _ _ _ _ G).
    apply kvs_all_push; [exact Hi|]. cbn [good_item forallb]. rewrite Hc. reflexivity.
Qed.

Lemma f_start_std_good k p :
  good_tbl p = true ->
  cres_ok (fun p' tk => good_tbl p' = true /\ match tk with Some t => good_tbl t = true | None => True end)
          (f_start_std k p).
Proof.
  intro Hg. unfold f_start_std. pose proof Hg as Hi. rewrite good_tbl_items in Hi.
  destruct (kv_get (t_items p) (k_key k)) as [[k' it]|] eqn:G; [|cbn [cres_ok]; auto].
  pose proof (kvs_all_get _ _ _ _ _ Hi G) as Hit. destruct it as [|v|t|ts sp0]; try exact I.
  destruct (t_implicit t && negb (t_dotted t)); [|exact I]. cbn [cres_ok]. split; [|exact Hit].
  rewrite good_set_items. apply kvs_all_remove, Hi.
Qed.

Lemma start_table_ok st path dec sp :
  good_tbl (st_root st) = true -> st_current st = tbl_new -> st_path st = [] -> path <> [] ->
  cres_sat inv (start_table st path dec sp).
Proof.
  intros Hr Hc Hp Hne. destruct (pop_key_nonempty path Hne) as (ppath & k & Hpop).
  rewrite (start_table_fin _ _ _ _ _ _ Hc Hp Hpop).
  pose proof (wta_good _ ppath (st_root st) false (f_start_std k) Hr (f_start_std_good k)) as W.
  destruct (with_table_at (st_root st) ppath false (f_start_std k)) as [[root' tk]| |]; cbn [cres_ok] in W; auto.
  destruct W as [Hr' Htk]. cbn [cres_sat]. unfold open_table. split; cbn [st_current st_root st_path st_is_array].
  - destruct tk as [t|]; [rewrite good_tbl_items in Htk; exact Htk|reflexivity].
  - eapply fin_ok_good; [exact Hr'|exact Hne|exact Hpop|]. intros cur Hcur.
    apply (wta_good (fun _ : unit => True)); [exact Hr'|]. intros p Hg. apply f_fin_std_good; assumption.
Qed.

Lemma start_array_table_ok st path dec sp :
  good_tbl (st_root st) = true -> st_current st = tbl_new -> st_path st = [] -> path <> [] ->
  cres_sat inv (start_array_table st path dec sp).
Proof.
  intros Hr Hc Hp Hne. destruct (pop_key_nonempty path Hne) as (ppath & k & Hpop).
  rewrite (start_array_table_fin _ _ _ _ _ _ Hc Hp Hpop).
  destruct (with_table_at (st_root st) ppath false (f_start_aot k)) as [[root' u]| |] eqn:E.
  - cbn [cres_sat]. unfold open_table. split; cbn [st_current st_root st_path st_is_array]; [reflexivity|].
    intros tr pos cur Hcur. rewrite (finalize_eq _ _ _ _ _ _ _ _ Hpop).
    pose proof (aot_two_descents k ppath _ _ _ Hr E cur Hcur) as W.
    destruct (with_table_at root' ppath false (f_fin_aot k cur)) as [[root'' u']| |]; cbn [cres_ok] in W; auto.
    cbn [fin_post st_root st_current st_path]. tauto.
  - exact I.
  - exfalso. eapply (wta_nopanic ppath (st_root st) false (f_start_aot k) Hr); [|exact E].
    intros p Hg s0. unfold f_start_aot. destruct (kv_get (t_items p) (k_key k)) as [[k' it]|]; [|discriminate].
    destruct it; discriminate.
Qed.

(* on_std_header / on_array_header *)
Lemma on_header_ok ia st path trailing sp :
  inv st -> path <> [] -> cres_sat inv (on_header ia st path trailing sp).
Proof.
  intros Hi Hne. unfold on_header. destruct path as [|k0 ptl] eqn:Ep; [congruence|]. rewrite <- Ep in *.
  pose proof (inv_fin st Hi) as F. destruct (finalize_table st) as [st1| |]; cbn [fin_post] in F; auto.
  destruct F as (Hr & Hc & Hp). unfold take_trailing.
  destruct ia; [apply start_array_table_ok|apply start_table_ok]; cbn [st_root st_current st_path]; auto.
Qed.
