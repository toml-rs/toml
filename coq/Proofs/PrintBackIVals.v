(* Proofs/PrintBackIVals.v — C03, dotted keys inside inline tables: the pairs an inline table prints
   (Model/Encode.v inline_values) as a structural function of the value (`ivi`); what inline_insert
   (inline_table.rs descend_path) does to them: one more pair. *)
From TV Require Import Base.Prelude.
From TV Require Import Model.Tree Model.Parse Model.Encode.
From TV Require Import Proofs.SpansDefs Proofs.PrintBackBase Proofs.PrintBackValue
                       Proofs.PrintBackDVals.
From TV Require Import Proofs.KvFacts.
From TV Require Import Proofs.ModelFacts.
Require Import Lia ZifyBool ZifyN ZifyNat Sorting.Sorted Sorting.Permutation.
From TV Require Import Base.ListFacts.

(* the pairs below a value at path p: an inline table made by dotted keys stands for its pairs *)
Fixpoint ivv (v : value) (p : list key) {struct v} : list (list key * value) :=
  match v with
  | VInline sub _ _ true _ _ =>
    (fix go (l : list (key * item)) : list (list key * value) :=
       match l with
       | [] => []
       | (k, it) :: tl => (match it with IValue e => ivv e (p ++ [k]) | _ => [] end) ++ go tl
       end) sub
  | _ => [(p, v)]
  end.
Definition ivit (it : item) (p : list key) : list (list key * value) := match it with IValue e => ivv e p | _ => [] end.
Definition ivi (items : list (key * item)) (p : list key) : list (list key * value) :=
  flat_map (fun kv => ivit (snd kv) (p ++ [fst kv])) items.

Lemma ivv_dotted sub pre im d sp p : ivv (VInline sub pre im true d sp) p = ivi sub p.
Proof.
  cbn [ivv]. unfold ivi. induction sub as [|[k it] tl IH]; [reflexivity|]. cbn [flat_map fst snd]. rewrite <- IH. reflexivity.
Qed.
Lemma ivv_leaf v p : undot v = true -> ivv v p = [(p, v)].
Proof. destruct v as [x r d|vs tr c d sp|its pre im dt d sp]; try reflexivity. cbn [undot]. destruct dt; [discriminate|reflexivity]. Qed.
Lemma ivi_app a b p : ivi (a ++ b) p = ivi a p ++ ivi b p.
Proof. apply flat_map_app. Qed.

(* ---- InlineTable::append_values with enough fuel -------------------------------------------------------------------- *)
Definition items_size (m : list (key * item)) : nat :=
  fold_right (fun kv acc => match kv with (_, i0) => item_size i0 + acc end) 0 m.

Lemma inline_values_ivi : forall f items p, items_size items < f -> inline_values f p items = ivi items p.
Proof.
  induction f as [|f IH]; intros items p Hf; [lia|]. cbn [inline_values]. unfold ivi. apply flat_map_ext_in. intros [k it] Hin. cbn [fst snd].
  pose proof (kv_size_in items (k, it) Hin) as Hsz. cbn [snd] in Hsz. fold (items_size items) in Hsz.
  destruct it as [|v|sub|ts sp]; try reflexivity. cbn [ivit].
  destruct v as [x r d|vs tr c d sp|its pre im dt d sp]; try reflexivity. destruct dt; [|reflexivity].
  rewrite ivv_dotted. apply IH. cbn [item_size value_size] in Hsz. fold (items_size its) in Hsz. lia.
Qed.

(* ---- substitution of spans ----------------------------------------------------------------------------------------------- *)
Lemma ivv_tvalue s :
  (forall v, forall p, ivv (tvalue s v) (map (tkey s) p) = map (tline s) (ivv v p))
  /\ (forall it, forall p, ivit (titem s it) (map (tkey s) p) = map (tline s) (ivit it p))
  /\ (forall t : tbl, True).
Proof.
  apply tree_ind3; try (intros; exact I).
  - intros x r d p. reflexivity.
  - intros vals tr c d sp _ p. cbn [ivv map]. unfold tline. cbn [fst snd]. rewrite !tvalue_array. reflexivity.
  - intros items pre im dt d sp IH p. destruct dt; [|cbn [ivv map]; unfold tline; cbn [fst snd]; rewrite !tvalue_inline; reflexivity]. rewrite tvalue_inline, !ivv_dotted. unfold ivi.
    rewrite !flat_map_concat_map, concat_map, !map_map. f_equal. apply map_ext_Forall. eapply Forall_impl; [|exact IH].
    intros [k it] Hk. unfold tkv. cbn [fst snd] in *. rewrite <- Hk, map_app. reflexivity.
  - intros p. reflexivity.
  - intros v IH p. rewrite titem_value. cbn [ivit]. apply IH.
  - intros t _ p. reflexivity.
  - intros ts sp _ p. reflexivity.
Qed.

Lemma ivi_tkv s items p : ivi (map (tkv s) items) (map (tkey s) p) = map (tline s) (ivi items p).
Proof.
  unfold ivi. rewrite !flat_map_concat_map, concat_map, !map_map. f_equal. apply map_ext. intros [k it]. unfold tkv. cbn [fst snd].
  rewrite <- (proj1 (proj2 (ivv_tvalue s))), map_app. reflexivity.
Qed.

(* ---- the pairs without their paths: key of the pair, value ------------------------------------------------------------- *)
Definition ipf (kv : list key * value) : key * value := (last (fst kv) (mkKey [] None decor_default decor_default), snd kv).

(* every inline table that is only implied by dotted keys is marked dotted (so its pairs are flattened) *)
Fixpoint iwf (v : value) : bool :=
  match v with
  | VInline sub _ im dt _ _ =>
    (if im then dt else true)
    && (if dt then (fix go (l : list (key * item)) : bool := match l with [] => true | (_, it) :: tl => (match it with IValue e => iwf e | _ => false end) && go tl end) sub
        else true)
  | _ => true
  end.
Definition iwfi (m : list (key * item)) : bool := forallb (fun kv => match snd kv with IValue e => iwf e | _ => false end) m.
Lemma iwf_dotted sub pre im d sp : iwf (VInline sub pre im true d sp) = iwfi sub.
Proof.
  cbn [iwf]. destruct im; cbn [andb]; unfold iwfi; induction sub as [|[k it] tl IH]; try reflexivity; cbn [forallb snd]; rewrite <- IH; reflexivity.
Qed.

(* among well-formed items, an inline table implied by dotted keys is dotted and holds well-formed items *)
Lemma iwfi_get m k k0 sub pre dt dec sp :
  iwfi m = true -> kv_get m k = Some (k0, IValue (VInline sub pre true dt dec sp)) -> dt = true /\ iwfi sub = true.
Proof.
  intros Hm G. pose proof (kv_get_forallb _ _ _ _ _ Hm G) as Hv. cbn [snd] in Hv.
  assert (Edt : dt = true) by (cbn [iwf] in Hv; apply andb_true_iff in Hv as [Hd _]; exact Hd). subst dt. rewrite iwf_dotted in Hv. auto.
Qed.

Lemma iwfi_set m k k0 it v' : iwfi m = true -> kv_get m k = Some (k0, it) -> iwf v' = true -> iwfi (kv_set m k (IValue v')) = true.
Proof.
  intros Hm _ Hv. apply kv_set_forallb; [exact Hm|]. intros; exact Hv.
Qed.

(* replacing a value replaces its pairs, in place *)
Lemma ivi_set m k k0 v v' p : kv_get m k = Some (k0, IValue v) ->
  exists A B, ivi m p = A ++ ivv v (p ++ [k0]) ++ B /\ ivi (kv_set m k (IValue v')) p = A ++ ivv v' (p ++ [k0]) ++ B.
Proof.
  intro G. destruct (kv_get_split m k _ _ G) as (A & B & EA & _ & Hs & _). exists (ivi A p), (ivi B p).
  rewrite Hs, EA, !ivi_app. split; reflexivity.
Qed.

(* inline_insert: one more pair *)
Lemma inline_insert_pairs : forall path m dh pe k v m' p,
  inline_insert m dh path pe k (IValue v) = COk m' -> iwfi m = true -> undot v = true -> iwf v = true ->
  iwfi m' = true /\ Permutation (map ipf (ivi m' p)) (map ipf (ivi m p) ++ [(k, v)]).
Proof.
  induction path as [|pk ptl IH]; intros m dh pe k v m' p H Hm Hv Hwv; cbn [inline_insert] in H.
  - destruct (Bool.eqb dh pe); [discriminate|]. destruct (kv_get m (k_key k)); [discriminate|]. injection H as <-. unfold kv_push. split.
    + apply (kv_push_forallb _ m k (IValue v) Hm Hwv).
    + rewrite ivi_app, map_app. apply Permutation_app_head. unfold ivi. cbn [flat_map fst snd ivit]. rewrite (ivv_leaf v _ Hv). cbn [app map].
      unfold ipf. cbn [fst snd]. rewrite last_last. reflexivity.
  - destruct (kv_get m (k_key pk)) as [[k0 it]|] eqn:G.
    + destruct it as [|val| |]; try discriminate. destruct val as [x r d|vals tr c d sp|sub pre imp dt dec sp]; try discriminate.
      destruct imp; cbn [negb] in H; [|discriminate].
      destruct (inline_insert sub dt ptl pe k (IValue v)) as [sub'| |] eqn:E; try discriminate. injection H as <-.
      destruct (iwfi_get _ _ _ _ _ _ _ _ Hm G) as [-> Hsub].
      destruct (IH sub true pe k v sub' (p ++ [k0]) E Hsub Hv Hwv) as [Hw' Hp']. split.
      * apply (iwfi_set _ _ _ _ _ Hm G). rewrite iwf_dotted. exact Hw'.
      * destruct (ivi_set m _ k0 _ (VInline sub' pre true true dec sp) p G) as (A & B & -> & ->).
        rewrite !ivv_dotted, !map_app, Hp'. rewrite <- !app_assoc. apply Permutation_app_head, Permutation_app_head, Permutation_app_comm.
    + destruct (inline_insert [] true ptl pe k (IValue v)) as [sub| |] eqn:E; try discriminate. injection H as <-.
      destruct (IH [] true pe k v sub (p ++ [pk]) E eq_refl Hv Hwv) as [Hw' Hp']. unfold kv_push. split.
      * unfold iwfi in *. rewrite forallb_app, Hm. cbn [forallb snd andb]. rewrite iwf_dotted. unfold iwfi. rewrite Hw'. reflexivity.
      * rewrite ivi_app, map_app. apply Permutation_app_head. unfold ivi at 1. cbn [flat_map fst snd ivit]. rewrite ivv_dotted, app_nil_r.
        rewrite Hp'. reflexivity.
Qed.

(* ---- the nodes along the path of a dotted key are inline tables implied by dotted keys ----------------------------- *)
Fixpoint pimp (m : list (key * item)) (path : list key) : Prop :=
  match path with
  | [] => True
  | pk :: ptl => exists k0 sub pre dt dec sp, kv_get m (k_key pk) = Some (k0, IValue (VInline sub pre true dt dec sp)) /\ pimp sub ptl
  end.

(* replacing the items of an implied table on the way keeps the paths through implied tables *)
Lemma pimp_set m k k0 sub pre dt dec sp sub' sp' q :
  kv_get m k = Some (k0, IValue (VInline sub pre true dt dec sp)) -> (forall q', pimp sub q' -> pimp sub' q') -> pimp m q ->
  pimp (kv_set m k (IValue (VInline sub' pre true dt dec sp'))) q.
Proof.
  intros G Hkeep Hq. destruct q as [|qk qtl]; [exact I|]. cbn [pimp] in *. destruct Hq as (q0 & qsub & qpre & qdt & qdec & qsp & Gq & Hs).
  destruct (bytes_eqb k (k_key qk)) eqn:Eq.
  - apply bytes_eqb_eq in Eq. rewrite <- Eq in *. rewrite G in Gq. injection Gq as <- <- <- <- <- <-.
    eexists _, _, _, _, _, _. split; [apply (kv_get_set_same _ _ _ _ _ G)|apply Hkeep, Hs].
  - exists q0, qsub, qpre, qdt, qdec, qsp. split; [rewrite (kv_get_set_other _ _ _ _ Eq); exact Gq|exact Hs].
Qed.

Lemma insert_pimp : forall path m dh pe k v m', inline_insert m dh path pe k v = COk m' -> pimp m' path.
Proof.
  induction path as [|pk ptl IH]; intros m dh pe k v m' H; [exact I|]. cbn [inline_insert] in H. cbn [pimp].
  destruct (kv_get m (k_key pk)) as [[k0 it]|] eqn:G.
  - destruct it as [|val| |]; try discriminate. destruct val as [x r d|vals tr c d sp|sub pre imp dt dec sp]; try discriminate.
    destruct imp; cbn [negb] in H; [|discriminate]. destruct (inline_insert sub dt ptl pe k v) as [sub'| |] eqn:E; try discriminate. injection H as <-.
    exists k0, sub', pre, dt, dec, sp. split; [apply (kv_get_set_same _ _ _ _ _ G)|apply (IH _ _ _ _ _ _ E)].
  - destruct (inline_insert [] true ptl pe k v) as [sub| |] eqn:E; try discriminate. injection H as <-.
    exists pk, sub, REmpty, true, decor_default, None. split; [apply (kv_get_push_new _ _ _ G)|apply (IH _ _ _ _ _ _ E)].
Qed.

Lemma insert_keeps_pimp : forall path m dh pe k v m', inline_insert m dh path pe k v = COk m' -> forall q, pimp m q -> pimp m' q.
Proof.
  induction path as [|pk ptl IH]; intros m dh pe k v m' H q Hq; cbn [inline_insert] in H.
  - destruct (Bool.eqb dh pe); [discriminate|]. destruct (kv_get m (k_key k)); [discriminate|]. injection H as <-.
    destruct q as [|qk qtl]; [exact I|]. cbn [pimp] in *. destruct Hq as (k0 & sub & pre & dt & dec & sp & G & Hs).
    exists k0, sub, pre, dt, dec, sp. split; [apply kv_get_app_some, G|exact Hs].
  - destruct (kv_get m (k_key pk)) as [[k0 it]|] eqn:G.
    + destruct it as [|val| |]; try discriminate. destruct val as [x r d|vals tr c d sp|sub pre imp dt dec sp]; try discriminate.
      destruct imp; cbn [negb] in H; [|discriminate]. destruct (inline_insert sub dt ptl pe k v) as [sub'| |] eqn:E; try discriminate. injection H as <-.
      apply (pimp_set _ _ _ _ _ _ _ _ _ _ _ G (IH _ _ _ _ _ _ E) Hq).
    + destruct (inline_insert [] true ptl pe k v) as [sub| |] eqn:E; try discriminate. injection H as <-.
      destruct q as [|qk qtl]; [exact I|]. cbn [pimp] in *. destruct Hq as (q0 & qsub & qpre & qdt & qdec & qsp & Gq & Hs).
      exists q0, qsub, qpre, qdt, qdec, qsp. split; [apply kv_get_app_some, Gq|exact Hs].
Qed.

(* ---- the loop of table_from_pairs -------------------------------------------------------------------------------------- *)
Definition pair_ok (x : list key * (key * item)) : Prop := exists v, snd (snd x) = IValue v /\ undot v = true /\ iwf v = true.
Definition pair_kv (x : list key * (key * item)) : list (key * value) :=
  match snd (snd x) with IValue v => [(fst (snd x), v)] | _ => [] end.

Lemma loop_d_pairs : forall pairs m m' p, table_from_pairs_loop_d m pairs = COk m' -> iwfi m = true -> Forall pair_ok pairs ->
  iwfi m' = true /\ Permutation (map ipf (ivi m' p)) (map ipf (ivi m p) ++ flat_map pair_kv pairs)
  /\ Forall (fun x => pimp m' (fst x)) pairs /\ (forall q, pimp m q -> pimp m' q).
Proof.
  induction pairs as [|[path [k it]] tl IH]; intros m m' p H Hm Hok; cbn [table_from_pairs_loop_d] in H.
  - injection H as <-. split; [exact Hm|]. split; [rewrite app_nil_r; reflexivity|]. split; [constructor|auto].
  - destruct (check_depth _); [discriminate|]. inversion Hok as [|? ? (v & Ev & Hv & Hwv) Hok']; subst. cbn [fst snd] in Ev. subst it.
    destruct (inline_insert m false path _ k (IValue v)) as [m1| |] eqn:E; try discriminate.
    destruct (inline_insert_pairs path m false _ k v m1 p E Hm Hv Hwv) as [Hm1 Hp1].
    destruct (IH m1 m' p H Hm1 Hok') as (Hm' & Hp' & Hpi & Hkeep). split; [exact Hm'|]. split.
    + rewrite Hp', Hp1. cbn [flat_map pair_kv fst snd app]. rewrite <- !app_assoc. reflexivity.
    + split; [constructor; [cbn [fst]; apply Hkeep, (insert_pimp _ _ _ _ _ _ _ E)|exact Hpi]|].
      intros q Hq. apply Hkeep, (insert_keeps_pimp _ _ _ _ _ _ _ E _ Hq).
Qed.

(* ---- the span bookkeeping changes no pair ------------------------------------------------------------------------------ *)
Lemma set_spans_ivi : forall path m ve p, iwfi m = true -> pimp m path ->
  ivi (inline_set_spans m path ve) p = ivi m p /\ iwfi (inline_set_spans m path ve) = true /\ (forall q, pimp m q -> pimp (inline_set_spans m path ve) q).
Proof.
  induction path as [|k ptl IH]; intros m ve p Hm Hp; cbn [inline_set_spans]; [auto|]. cbn [pimp] in Hp.
  destruct Hp as (k0 & sub & pre & dt & dec & sp & G & Hs). rewrite G.
  destruct (iwfi_get _ _ _ _ _ _ _ _ Hm G) as [-> Hsub].
  set (sp1 := match key_span k, ve with Some ks, Some e => widen sp ks e | _, _ => sp end).
  destruct (IH sub ve (p ++ [k0]) Hsub Hs) as (Hi & Hw & Hkeep). split; [|split].
  - destruct (ivi_set m _ k0 _ (VInline (inline_set_spans sub ptl ve) pre true true dec sp1) p G) as (A & B & -> & ->).
    rewrite !ivv_dotted, Hi. reflexivity.
  - apply (iwfi_set _ _ _ _ _ Hm G). rewrite iwf_dotted. exact Hw.
  - intros q Hq. apply (pimp_set _ _ _ _ _ _ _ _ _ _ _ G Hkeep Hq).
Qed.

Lemma spans_pass_ivi : forall pairs m p, iwfi m = true -> Forall (fun x => pimp m (fst x)) pairs ->
  ivi (inline_spans_pass m pairs) p = ivi m p /\ iwfi (inline_spans_pass m pairs) = true.
Proof.
  unfold inline_spans_pass. induction pairs as [|[path [k v]] tl IH]; intros m p Hm Hp; cbn [fold_left]; [auto|].
  inversion Hp as [|? ? Hp1 Hp']; subst. cbn [fst] in Hp1. destruct (set_spans_ivi path m (item_end v) p Hm Hp1) as (Hi & Hw & Hkeep).
  destruct (IH (inline_set_spans m path (item_end v)) p Hw) as [Hi' Hw'].
  - eapply Forall_impl; [|exact Hp']. intros x Hx. apply Hkeep, Hx.
  - split; [rewrite Hi', Hi; reflexivity|exact Hw'].
Qed.

(* table_from_pairs: the pairs of the table are the pairs read *)
Theorem from_pairs_ivi pairs m p : table_from_pairs_loop_d [] pairs = COk m -> Forall pair_ok pairs ->
  Permutation (map ipf (ivi (inline_spans_pass m pairs) p)) (flat_map pair_kv pairs) /\ iwfi (inline_spans_pass m pairs) = true.
Proof.
  intros H Hok. destruct (loop_d_pairs pairs [] m p H eq_refl Hok) as (Hm & Hp & Hpi & _).
  destruct (spans_pass_ivi pairs m p Hm Hpi) as [Hi Hw]. split; [rewrite Hi; exact Hp|exact Hw].
Qed.
