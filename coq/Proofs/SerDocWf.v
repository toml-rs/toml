(* Proofs/SerDocWf.v — C07 through text: what every tree ValueSerializer returns looks like (`out_ok`):
   the keys of a table are pairwise distinct; integers are i64; floats are 64-bit patterns; date-times are in range;
   and, when the names in the type and the strings in the value are UTF-8 (Rust strings are), so is every string and
   key written.  These are the side conditions under which the printed tree is inside Model/Build.v's `Built`. *)
From TV Require Import Base.Prelude Base.Utf8 Model.Datetime Model.DatetimeStd Model.WriteFloat Model.Numbers Model.SerNum
  Spec.DatetimeSpec Spec.SerdeData Model.Ser Model.De Model.SerDoc Proofs.LexEquivUtf8 Proofs.NumbersRT_Widen Proofs.NumbersRT_Ser
  Proofs.DatetimeStdTotal Proofs.SerdeRTBase Proofs.SerdeRTEq Proofs.SerdeRTLeaf Proofs.SerdeRTLists Proofs.SerdeRTKeys
  Proofs.SerdeRT.
Require Import Lia ZifyBool ZifyN ZifyNat.
From TV Require Import Base.ListFacts Base.Utf8Facts.

Fixpoint out_ok (x : tomlval) : bool :=
  match x with
  | VStr s => utf8_valid_b s
  | VInt z => in_i64 z
  | VFloat b => (b <? 2 ^ 64)%N
  | VBool _ => true
  | VDatetime d => in_range d
  | VArr xs => forallb out_ok xs
  | VTab es => nodup_bytes (map fst es) && forallb (fun kx => utf8_valid_b (fst kx) && out_ok (snd kx)) es
  end.

(* ---- leaves ---- *)
Lemma canon_nan_lt b : (b < 2 ^ 64)%N -> (canon_nan b < 2 ^ 64)%N.
Proof.
  intro H. unfold canon_nan. destruct (is_nan64 b); [|exact H].
  eapply N.le_lt_trans; [apply N.mod_le; discriminate|exact H].
Qed.
Lemma widen32_lt b : (widen32 b < 2 ^ 64)%N.
Proof.
  rewrite widen32_eq. destruct (wide_fields_bounds b) as [B1 B2]. pose proof (sign32_lt b) as Hs.
  change (2 ^ 64)%N with 18446744073709551616%N. unfold p63, p52 in *. lia.
Qed.

(* ---- keys ---- *)
Lemma utf8_ty_newtype n t : utf8_ty (TNewtype n t) = utf8_ty t. Proof. reflexivity. Qed.
Lemma utf8_ty_enum n vs : utf8_ty (TEnum n vs) = forallb (fun nv => utf8_valid_b (fst nv) && utf8_variant (snd nv)) vs.
Proof. reflexivity. Qed.
Lemma utf8_ty_struct n fs : utf8_ty (TStruct n fs) = forallb (fun ft => utf8_valid_b (fst ft) && utf8_ty (snd ft)) fs.
Proof. reflexivity. Qed.
Lemma utf8_variant_struct fs : utf8_variant (VStruct fs) = forallb (fun ft => utf8_valid_b (fst ft) && utf8_ty (snd ft)) fs.
Proof. reflexivity. Qed.

Lemma enum_name_utf8 (vs : list (bytes * variant)) i vn var :
  forallb (fun nv => utf8_valid_b (fst nv) && utf8_variant (snd nv)) vs = true -> nth_error vs i = Some (vn, var) ->
  utf8_valid_b vn = true /\ utf8_variant var = true.
Proof.
  intros H Hn. rewrite forallb_forall in H. specialize (H _ (nth_error_In _ _ Hn)). simpl in H.
  apply andb_true_iff in H. exact H.
Qed.

Lemma key_text_utf8 t : forall a s, utf8_ty t = true -> utf8_sv a = true -> key_text t a = Some s -> utf8_valid_b s = true.
Proof.
  induction t using ty_ind2 with (Q := fun _ => True); try exact I; intros a s Ht Ha Hk;
    try (destruct a; simpl in Hk; discriminate).
  - destruct a; simpl in Hk; try discriminate. injection Hk as <-. exact Ha.
  - destruct a; try (simpl in Hk; discriminate). rewrite kt_newtype in Hk. apply (IHt a s Ht Ha Hk).
  - destruct a as [| | | | | | | | | | | | | |i p]; try (simpl in Hk; discriminate). rewrite kt_enum in Hk.
    destruct (pick_cases key_text_variant None vs i) as [([vn var] & Hn & E)|[_ E]]; rewrite E in Hk; [|discriminate].
    unfold key_text_variant in Hk. simpl in Hk. destruct var; try discriminate. injection Hk as <-.
    rewrite utf8_ty_enum in Ht. apply (enum_name_utf8 vs i vn VUnit Ht Hn).
Qed.

(* ---- tables ---- *)
Lemma forallb_Forall {A} (f : A -> bool) l : forallb f l = true <-> Forall (fun a => f a = true) l.
Proof. apply ListFacts.forallb_Forall. Qed.

Definition OK (t : ty) : Prop :=
  forall v x, has_type_b t v = true -> utf8_ty t = true -> utf8_sv v = true -> ser_value t v = Ok x -> out_ok x = true.
Definition OKV (var : variant) : Prop :=
  forall p x, has_type_variant_b var p = true -> utf8_variant var = true -> utf8_sv p = true -> ser_payload var p = Ok x ->
              out_ok x = true.

Lemma ok_list t : OK t -> forall vs xs, forallb (has_type_b t) vs = true -> utf8_ty t = true -> forallb utf8_sv vs = true ->
  mapM (ser_value t) vs = Ok xs -> forallb out_ok xs = true.
Proof.
  intros IH. induction vs as [|v vs IHvs]; intros xs Hty Ht Hu H; simpl in *.
  - injection H as <-. reflexivity.
  - apply andb_true_iff in Hty as [Hv Hvs]. apply andb_true_iff in Hu as [Hu1 Hu2].
    apply rbind_ok in H as (x & Hx & H). apply rbind_ok in H as (xs' & Hxs & H). injection H as <-.
    simpl. rewrite (IH v x Hv Ht Hu1 Hx), (IHvs xs' Hvs Ht Hu2 Hxs). reflexivity.
Qed.

Lemma ok_tuple ts : Forall OK ts -> forall vs xs, all2b has_type_b ts vs = true -> forallb utf8_ty ts = true -> forallb utf8_sv vs = true ->
  zipM ser_value ts vs = Ok xs -> forallb out_ok xs = true.
Proof.
  induction 1 as [|t ts IHt _ IH]; intros [|v vs] xs Hty Ht Hu H; simpl in *; try discriminate.
  - injection H as <-. reflexivity.
  - apply andb_true_iff in Hty as [Hv Hvs]. apply andb_true_iff in Hu as [Hu1 Hu2]. apply andb_true_iff in Ht as [Ht1 Ht2].
    apply rbind_ok in H as (x & Hx & H). apply rbind_ok in H as (xs' & Hxs & H). injection H as <-.
    simpl. rewrite (IHt v x Hv Ht1 Hu1 Hx), (IH vs xs' Hvs Ht2 Hu2 Hxs). reflexivity.
Qed.

(* the fields written: names from the type, values by induction *)
Lemma ok_fields fs : Forall (fun ft => OK (snd ft)) fs -> forall vs ps,
  all2b (fun ft v' => has_type_b (snd ft) v') fs vs = true ->
  forallb (fun ft => utf8_valid_b (fst ft) && utf8_ty (snd ft)) fs = true -> forallb utf8_sv vs = true ->
  ser_fields fs vs = Ok ps ->
  forallb (fun kx : bytes * tomlval => utf8_valid_b (fst kx) && out_ok (snd kx)) (somes ps) = true.
Proof.
  unfold ser_fields.
  induction 1 as [|[f t] fs IHt _ IH]; intros [|v vs] ps Hty Ht Hu H; simpl in *; try discriminate.
  - injection H as <-. reflexivity.
  - apply andb_true_iff in Hty as [Hv Hvs]. apply andb_true_iff in Hu as [Hu1 Hu2]. apply andb_true_iff in Ht as [Ht1 Ht2].
    apply andb_true_iff in Ht1 as [Hf Ht1].
    apply rbind_ok in H as (p & Hp & H). apply rbind_ok in H as (ps' & Hps & H). injection H as <-.
    specialize (IH vs ps' Hvs Ht2 Hu2 Hps).
    apply rmap_ok in Hp as (ox & Hox & ->).
    destruct (ser_map_value_cases ser_value t v) as [(t' & -> & -> & E)|[_ E]]; rewrite E in Hox.
    + injection Hox as <-. simpl. exact IH.
    + apply rmap_ok in Hox as (x & Hx & ->). simpl. rewrite Hf, (IHt v x Hv Ht1 Hu1 Hx), IH. reflexivity.
Qed.

Lemma ok_struct_fields fs : Forall (fun ft => OK (snd ft)) fs -> forall vs ps,
  nodup_bytes (map fst fs) = true ->
  all2b (fun ft v' => has_type_b (snd ft) v') fs vs = true ->
  forallb (fun ft => utf8_valid_b (fst ft) && utf8_ty (snd ft)) fs = true -> forallb utf8_sv vs = true ->
  ser_fields fs vs = Ok ps -> out_ok (table_of ps) = true.
Proof.
  intros IH vs ps Hnd Hty Ht Hu H. apply nodup_bytes_NoDup in Hnd.
  assert (IH0 : Forall (fun ft : bytes * ty => RT (snd ft)) fs) by (apply Forall_forall; intros ft _; apply roundtrip_value).
  pose proof (rt_fields fs IH0 vs ps Hty H) as F.
  pose proof (fields_somes_nodup de_value _ _ _ F Hnd) as Hes.
  unfold table_of, somes_pairs. rewrite (tab_of_pairs_nodup _ Hes). cbn [out_ok]. apply andb_true_iff. split.
  - apply nodup_bytes_NoDup, Hes.
  - apply (ok_fields fs IH vs ps Hty Ht Hu H).
Qed.

Theorem ser_out_ok : forall t, OK t.
Proof.
  induction t using ty_ind2 with (Q := OKV); unfold OK, OKV in *.
  - (* TBool *) intros v x _ _ _ Hser. destruct v; simpl in Hser; try discriminate. injection Hser as <-. reflexivity.
  - (* TInt *) intros v x Hty _ _ Hser. destruct v; simpl in Hser; try discriminate. simpl in Hty.
    unfold ser_int_value in Hser. destruct (ser_int w z) as [i|] eqn:E; [|discriminate]. injection Hser as <-.
    destruct (ser_exact w z i Hty E) as [_ Hf]. exact Hf.
  - (* TFloat *) intros v x Hty _ _ Hser. destruct w; destruct v; simpl in Hser; try discriminate; injection Hser as <-; simpl in Hty.
    + cbn [out_ok]. apply N.ltb_lt. apply canon_nan_lt, widen32_lt.
    + cbn [out_ok]. apply N.ltb_lt. apply canon_nan_lt. apply N.ltb_lt, Hty.
  - (* TChar *) intros v x Hty _ _ Hser. destruct v; simpl in Hser; try discriminate. injection Hser as <-. simpl in Hty.
    cbn [out_ok]. apply utf8_encode_valid0, Hty.
  - (* TStr *) intros v x _ _ Hu Hser. destruct v; simpl in Hser; try discriminate. injection Hser as <-. exact Hu.
  - (* TDatetime *) intros v x Hty _ _ Hser. destruct v; simpl in Hser; try discriminate. simpl in Hty.
    apply andb_true_iff in Hty as [Hr _]. rewrite (ser_datetime_ok d x Hr Hser). exact Hr.
  - (* TUnit *) intros v x _ _ _ Hser. destruct v; simpl in Hser; discriminate.
  - (* TUnitStruct *) intros v x _ _ _ Hser. destruct v; simpl in Hser; discriminate.
  - (* TOpt *) intros v x Hty Ht Hu Hser. destruct v; try (simpl in Hser; discriminate).
    rewrite sv_opt_some in Hser. rewrite ht_opt_some in Hty. apply (IHt v x Hty Ht Hu Hser).
  - (* TSeq *) intros v x Hty Ht Hu Hser. destruct v; try (simpl in Hser; discriminate).
    rewrite sv_seq in Hser. rewrite ht_seq in Hty. apply rmap_ok in Hser as (xs & Hxs & ->).
    apply (ok_list t IHt vs xs Hty Ht Hu Hxs).
  - (* TTuple *) intros v x Hty Ht Hu Hser. destruct v; try (simpl in Hser; discriminate).
    rewrite sv_tuple in Hser. rewrite ht_tuple in Hty. apply rmap_ok in Hser as (xs & Hxs & ->).
    apply (ok_tuple ts H vs xs Hty Ht Hu Hxs).
  - (* TMap *) intros v x Hty Ht Hu Hser. destruct v; try (simpl in Hty; discriminate).
    rewrite ht_map in Hty. apply andb_true_iff in Hty as [Hty Hnd]. apply andb_true_iff in Hty as [Hno Hes].
    apply negb_true_iff in Hno. apply nodup_bytes_NoDup in Hnd.
    rewrite sv_map in Hser. apply rmap_ok in Hser as (ps & Hps & ->).
    destruct (entries_rt ser_value ser_key de_key (fun v x => has_type_b t2 v = true /\ ser_value t2 v = Ok x) t1 t2 es)
      with (ps := ps) as (xs & -> & F); [|exact Hps|].
    { rewrite forallb_forall in Hes. apply Forall_forall. intros [k v] Hin.
      pose proof (Hes _ Hin) as Hkv. simpl in *. apply andb_true_iff in Hkv as [Hk Hv].
      split; [intros s Hs; apply (key_roundtrip t1 k s Hk Hs)|]. split; [|auto].
      intros ->. pose proof (none_typed t2 Hv). congruence. }
    assert (Hk : somes (map (fun kv => key_text t1 (fst kv)) es) = map fst xs).
    { apply (entries_keys t1 es xs (fun kv kx => de_key t1 (fst kx) = Ok (fst kv) /\ sval_eq (fst kv) (fst kv) /\
                                      has_type_b t2 (snd kv) = true /\ ser_value t2 (snd kv) = Ok (snd kx))). exact F. }
    rewrite Hk in Hnd.
    unfold table_of, somes_pairs. rewrite somes_map_Some, (tab_of_pairs_nodup xs Hnd).
    cbn [out_ok]. apply andb_true_iff. split; [apply nodup_bytes_NoDup, Hnd|].
    simpl in Ht. apply andb_true_iff in Ht as [Htk Htv]. simpl in Hu.
    clear - F Htk Htv Hu IHt2. induction F as [|[k v] [s x] es xs (K1 & _ & _ & Hv & Hx) _ IH]; [reflexivity|].
    simpl in *. apply andb_true_iff in Hu as [Hu1 Hu2]. apply andb_true_iff in Hu1 as [Hk1 Hv1].
    rewrite (key_text_utf8 t1 k s Htk Hk1 K1), (IHt2 v x Hv Htv Hv1 Hx), (IH Hu2). reflexivity.
  - (* TStruct *) intros v x Hty Ht Hu Hser. destruct v; try (simpl in Hser; discriminate).
    rewrite ht_struct in Hty. apply andb_true_iff in Hty as [Hty Hvs]. apply andb_true_iff in Hty as [Hpriv Hnd].
    apply negb_true_iff in Hpriv. rewrite sv_struct, (private_not_dt n Hpriv) in Hser.
    apply rmap_ok in Hser as (ps & Hps & ->). rewrite utf8_ty_struct in Ht.
    apply (ok_struct_fields fs H vs ps Hnd Hvs Ht Hu Hps).
  - (* TNewtype *) intros v x Hty Ht Hu Hser. destruct v; try (simpl in Hser; discriminate).
    rewrite sv_newtype in Hser. rewrite ht_newtype in Hty. apply (IHt v x Hty Ht Hu Hser).
  - (* TTupleStruct *) intros v x Hty Ht Hu Hser. destruct v; try (simpl in Hser; discriminate).
    rewrite sv_tuple_struct in Hser. rewrite ht_tuple_struct in Hty. apply rmap_ok in Hser as (xs & Hxs & ->).
    apply (ok_tuple ts H vs xs Hty Ht Hu Hxs).
  - (* TEnum *) intros v x Hty Ht Hu Hser. destruct v as [| | | | | | | | | | | | | |i p]; try (simpl in Hser; discriminate).
    rewrite ht_enum in Hty. apply andb_true_iff in Hty as [Hnd Hp].
    rewrite sv_enum in Hser.
    destruct (pick_cases (ser_variant p) (Err EBadCase) vs i) as [([vn var] & Hn & E)|[_ E]]; rewrite E in Hser; [|discriminate].
    rewrite (pick_nth _ _ _ _ _ Hn) in Hp. simpl in Hp.
    rewrite utf8_ty_enum in Ht. destruct (enum_name_utf8 vs i vn var Ht Hn) as [Hvn Hvar].
    assert (HQ : forall q y, has_type_variant_b var q = true -> utf8_variant var = true -> utf8_sv q = true ->
                             ser_payload var q = Ok y -> out_ok y = true).
    { rewrite Forall_forall in H. apply (H (vn, var)). eapply nth_error_In; exact Hn. }
    unfold ser_variant in Hser. simpl in Hser. simpl in Hu.
    destruct var as [|tv|tsv|fsv].
    + destruct p; try discriminate Hser. injection Hser as <-. exact Hvn.
    + apply rmap_ok in Hser as (y & Hy & ->). cbn [out_ok map fst snd nodup_bytes mem_bytes forallb negb andb].
      rewrite Hvn, (HQ p y Hp Hvar Hu Hy). reflexivity.
    + apply rmap_ok in Hser as (y & Hy & ->). cbn [out_ok map fst snd nodup_bytes mem_bytes forallb negb andb].
      rewrite Hvn, (HQ p y Hp Hvar Hu Hy). reflexivity.
    + apply rmap_ok in Hser as (y & Hy & ->). cbn [out_ok map fst snd nodup_bytes mem_bytes forallb negb andb].
      rewrite Hvn, (HQ p y Hp Hvar Hu Hy). reflexivity.
  - (* VUnit *) intros p x _ _ _ Hser. simpl in Hser. discriminate.
  - (* VNewtype *) intros p x Hty Ht Hu Hser. rewrite sp_newtype in Hser. rewrite htv_newtype in Hty.
    apply (IHt p x Hty Ht Hu Hser).
  - (* VTuple *) intros p x Hty Ht Hu Hser. destruct p; try (simpl in Hty; discriminate).
    rewrite sp_tuple in Hser. rewrite htv_tuple in Hty. apply rmap_ok in Hser as (xs & Hxs & ->).
    apply (ok_tuple ts H vs xs Hty Ht Hu Hxs).
  - (* VStruct *) intros p x Hty Ht Hu Hser. destruct p; try (simpl in Hty; discriminate).
    rewrite htv_struct in Hty. apply andb_true_iff in Hty as [Hnd Hvs].
    rewrite sp_struct in Hser. apply rmap_ok in Hser as (ps & Hps & ->). rewrite utf8_variant_struct in Ht.
    apply (ok_struct_fields fs H vs ps Hnd Hvs Ht Hu Hps).
Qed.

(* ---- the text of a date-time is ASCII (toml::to_string writes a root Datetime as { "$__toml_private_datetime" = "<text>" }) ---- *)
Definition AA (s : bytes) : Prop := forall b, In b s -> ascii_b b = true.
Lemma AA_app a b : AA a -> AA b -> AA (a ++ b).
Proof. intros Ha Hb x Hx. apply in_app_or in Hx as [H|H]; auto. Qed.
Lemma AA_cons x s : ascii_b x = true -> AA s -> AA (x :: s).
Proof. intros Hx Hs y [<-|Hy]; auto. Qed.
Lemma AA_nil : AA []. Proof. intros b []. Qed.
Lemma AA_rev s : AA s -> AA (rev s).
Proof. intros H b Hb. apply H. apply in_rev. exact Hb. Qed.
Lemma AA_valid s : AA s -> utf8_valid_b s = true.
Proof.
  induction s as [|b s IH]; intro H; [reflexivity|]. rewrite utf8_cons_ascii by (apply H; left; reflexivity).
  apply IH. intros c Hc. apply H. right. exact Hc.
Qed.
Lemma digit_byte_asc d : (d < 10)%N -> ascii_b (digit_byte d) = true.
Proof. intro H. apply digit_ascii, digit_byte_is_digit, H. Qed.
Lemma digits_rev_AA fuel : forall n, AA (digits_rev fuel n).
Proof.
  induction fuel as [|f IH]; intro n; cbn [digits_rev]; [apply AA_nil|].
  destruct (n <? 10)%N eqn:E.
  - apply AA_cons; [apply digit_byte_asc; lia|apply AA_nil].
  - apply AA_cons; [apply digit_byte_asc; apply N.mod_lt; discriminate|apply IH].
Qed.
Lemma pad0_AA w n : AA (pad0 w n).
Proof.
  unfold pad0, dec_digits. apply AA_app; [|apply AA_rev, digits_rev_AA].
  intros b Hb. apply repeat_spec in Hb. subst. reflexivity.
Qed.
Lemma trim_rev_AA s : AA s -> AA (trim_end_zeros_rev s).
Proof.
  induction s as [|b s IH]; intro H; cbn [trim_end_zeros_rev]; [exact H|].
  destruct (byte_eqb b x30); [apply IH; intros c Hc; apply H; right; exact Hc|exact H].
Qed.
Lemma display_datetime_AA d : AA (display_datetime d).
Proof.
  unfold display_datetime. repeat apply AA_app.
  - destruct (d_date d) as [x|]; [|apply AA_nil]. unfold display_date.
    repeat (first [apply pad0_AA | apply AA_app | apply AA_cons; [reflexivity|] | apply AA_nil]).
  - destruct (d_time d) as [t|]; [|apply AA_nil]. apply AA_app.
    + destruct (d_date d); [apply AA_cons; [reflexivity|apply AA_nil]|apply AA_nil].
    + unfold display_time.
      repeat (first [apply pad0_AA | apply AA_app | apply AA_cons; [reflexivity|] | apply AA_nil]).
      destruct (nanosecond t =? 0)%N; [apply AA_nil|]. apply AA_cons; [reflexivity|].
      unfold trim_end_zeros. apply AA_rev, trim_rev_AA, AA_rev, pad0_AA.
  - destruct (d_offset d) as [[|m]|]; [apply AA_cons; [reflexivity|apply AA_nil]| |apply AA_nil].
    unfold display_offset. apply AA_cons; [destruct (m <? 0)%Z; reflexivity|].
    repeat (first [apply pad0_AA | apply AA_app | apply AA_cons; [reflexivity|] | apply AA_nil]).
Qed.

(* ---- the roots of the text routes ---- *)
Lemma edit_root_out_ok t v x :
  has_type_b t v = true -> utf8_ty t = true -> utf8_sv v = true -> ser_edit_root t v = Ok x ->
  out_ok x = true /\ exists es, x = VTab es.
Proof.
  intros Hty Ht Hu H0. apply edit_root_is_table in H0 as (es & -> & H0).
  split; [apply (ser_out_ok t v _ Hty Ht Hu H0)|eauto].
Qed.

Lemma toml_root_out_ok t v x :
  has_type_b t v = true -> utf8_ty t = true -> utf8_sv v = true -> ser_toml_root t v = Ok x ->
  out_ok x = true /\ exists es, x = VTab es.
Proof.
  intros Hty Ht Hu H.
  assert (Edit : ser_edit_root t v = Ok x -> out_ok x = true /\ exists es, x = VTab es)
    by (apply edit_root_out_ok; assumption).
  destruct t; try (apply Edit; destruct v; exact H).
  - (* enum at the root *)
    destruct v as [| | | | | | | | | | | | | |i p]; try (apply Edit; exact H).
    simpl in H.
    match type of H with pick ?f ?d vs i = _ => destruct (pick_cases f d vs i) as [([vn var] & Hn & E)|[_ E]]; rewrite E in H end;
      [|discriminate].
    simpl in H. destruct var; try discriminate H.
    + apply Edit. exact H.
    + apply Edit. exact H.
    + destruct p; try discriminate H. destruct (zipM ser_value ts vs0); discriminate H.
Qed.

Theorem ser_text_out_ok r t v x :
  has_type v t -> utf8_ty t = true -> utf8_sv v = true -> ser_text r t v = Ok x ->
  out_ok x = true /\ exists es, x = VTab es.
Proof.
  intros Hty Ht Hu H. destruct r; simpl in H;
    first [apply (edit_root_out_ok t v x Hty Ht Hu H) | apply (toml_root_out_ok t v x Hty Ht Hu H)].
Qed.

(* ---- nesting: the value tree is never deeper than the type (every struct / map / sequence / tuple / variant with a
        payload is one level; Option and newtype structs are none) ---- *)
Lemma tab_insert_in k x es k' x' : In (k', x') (tab_insert k x es) -> In (k', x') es \/ x' = x.
Proof.
  induction es as [|[k0 x0] es IH]; simpl; intro H.
  - destruct H as [H|[]]. injection H as _ <-. right; reflexivity.
  - destruct (bytes_eqb k0 k).
    + destruct H as [H|H]; [injection H as _ <-; right; reflexivity|left; right; exact H].
    + destruct H as [H|H]; [left; left; exact H|]. destruct (IH H) as [G|G]; [left; right; exact G|right; exact G].
Qed.

Lemma tab_of_pairs_in ps k x : In (k, x) (tab_of_pairs ps) -> exists k', In (k', x) ps.
Proof.
  unfold tab_of_pairs.
  assert (G : forall acc, In (k, x) (fold_left (fun acc p => tab_insert (fst p) (snd p) acc) ps acc) ->
                          (exists k', In (k', x) ps) \/ In (k, x) acc).
  { induction ps as [|[k0 x0] ps IH]; intros acc H; simpl in H; [right; exact H|].
    destruct (IH _ H) as [(k' & Hk)|Hin]; [left; exists k'; right; exact Hk|].
    destruct (tab_insert_in _ _ _ _ _ Hin) as [Ha| ->]; [right; exact Ha|left; exists k0; left; reflexivity]. }
  intro H. destruct (G [] H) as [E|[]]. exact E.
Qed.

Lemma tab_depth_bound (es : list (bytes * tomlval)) B :
  (forall k x, In (k, x) es -> tv_depth x <= B) -> tv_depth (VTab es) <= S B.
Proof.
  intro H. cbn [tv_depth]. apply le_n_S. induction es as [|[k x] es IH]; [cbn; lia|]. cbn [fold_right snd].
  pose proof (H k x (or_introl eq_refl)). specialize (IH (fun k' x' Hin => H k' x' (or_intror Hin))). lia.
Qed.
Lemma arr_depth_bound (xs : list tomlval) B :
  (forall x, In x xs -> tv_depth x <= B) -> tv_depth (VArr xs) <= S B.
Proof.
  intro H. cbn [tv_depth]. apply le_n_S. induction xs as [|x xs IH]; [cbn; lia|]. cbn [fold_right].
  pose proof (H x (or_introl eq_refl)). specialize (IH (fun x' Hin => H x' (or_intror Hin))). lia.
Qed.

Definition DP (t : ty) : Prop := forall v x, ser_value t v = Ok x -> tv_depth x <= ty_depth t.
Definition DPV (var : variant) : Prop := forall p y, ser_payload var p = Ok y -> S (tv_depth y) <= variant_depth var.

Lemma dp_tuple ts : Forall DP ts -> forall vs xs, zipM ser_value ts vs = Ok xs ->
  forall x, In x xs -> tv_depth x <= fold_right (fun t' acc => Nat.max (ty_depth t') acc) 0 ts.
Proof.
  induction 1 as [|t ts IHt _ IH]; intros [|v vs] xs H x Hin; simpl in H; try discriminate.
  - injection H as <-. contradiction.
  - apply rbind_ok in H as (x0 & Hx0 & H). apply rbind_ok in H as (xs' & Hxs & H). injection H as <-.
    cbn [fold_right]. destruct Hin as [<-|Hin]; [pose proof (IHt v x0 Hx0); lia|]. pose proof (IH vs xs' Hxs x Hin). lia.
Qed.

Lemma dp_fields fs : Forall (fun ft => DP (snd ft)) fs -> forall vs ps, ser_fields fs vs = Ok ps ->
  forall k x, In (k, x) (somes ps) -> tv_depth x <= fold_right (fun ft acc => Nat.max (ty_depth (snd ft)) acc) 0 fs.
Proof.
  unfold ser_fields.
  induction 1 as [|[f t] fs IHt _ IH]; intros [|v vs] ps H k x Hin; simpl in H; try discriminate.
  - injection H as <-. contradiction.
  - apply rbind_ok in H as (p & Hp & H). apply rbind_ok in H as (ps' & Hps & H). injection H as <-.
    cbn [fold_right snd]. apply rmap_ok in Hp as (ox & Hox & ->).
    destruct (ser_map_value_cases ser_value t v) as [(t' & -> & -> & E)|[_ E]]; rewrite E in Hox.
    + injection Hox as <-. simpl in Hin. pose proof (IH vs ps' Hps k x Hin). lia.
    + apply rmap_ok in Hox as (x0 & Hx0 & ->). simpl in Hin. destruct Hin as [Hin|Hin].
      * injection Hin as _ <-. pose proof (IHt v x0 Hx0). simpl in *. lia.
      * pose proof (IH vs ps' Hps k x Hin). lia.
Qed.

Lemma dp_table fs vs ps : Forall (fun ft => DP (snd ft)) fs -> ser_fields fs vs = Ok ps ->
  tv_depth (table_of ps) <= S (fold_right (fun ft acc => Nat.max (ty_depth (snd ft)) acc) 0 fs).
Proof.
  intros IH H. unfold table_of, somes_pairs. apply tab_depth_bound. intros k x Hin.
  destruct (tab_of_pairs_in _ _ _ Hin) as (k' & Hk'). apply (dp_fields fs IH vs ps H k' x Hk').
Qed.

Theorem ser_depth_le : forall t, DP t.
Proof.
  induction t using ty_ind2 with (Q := DPV); unfold DP, DPV in *.
  - intros v x H. destruct v; simpl in H; try discriminate. injection H as <-. cbn. lia.
  - intros v x H. destruct v; simpl in H; try discriminate. unfold ser_int_value in H. destruct (ser_int w z); [|discriminate].
    injection H as <-. cbn. lia.
  - intros v x H. destruct w; destruct v; simpl in H; try discriminate; injection H as <-; cbn; lia.
  - intros v x H. destruct v; simpl in H; try discriminate. injection H as <-. cbn. lia.
  - intros v x H. destruct v; simpl in H; try discriminate. injection H as <-. cbn. lia.
  - intros v x H. destruct v; simpl in H; try discriminate. unfold ser_datetime in H. apply rmap_ok in H as (d' & _ & ->). cbn. lia.
  - intros v x H. destruct v; simpl in H; discriminate.
  - intros v x H. destruct v; simpl in H; discriminate.
  - intros v x H. destruct v; try (simpl in H; discriminate). rewrite sv_opt_some in H. apply (IHt v x H).
  - intros v x H. destruct v; try (simpl in H; discriminate). rewrite sv_seq in H. apply rmap_ok in H as (xs & Hxs & ->).
    cbn [ty_depth]. apply arr_depth_bound. intros x Hx. apply mapM_ok in Hxs.
    clear - Hxs Hx IHt. induction Hxs as [|v x0 vs xs Hv _ IH]; [contradiction|]. destruct Hx as [<-|Hx]; [apply (IHt v x0 Hv)|apply IH, Hx].
  - intros v x H0. destruct v; try (simpl in H0; discriminate). rewrite sv_tuple in H0. apply rmap_ok in H0 as (xs & Hxs & ->).
    cbn [ty_depth]. apply arr_depth_bound. apply (dp_tuple ts H vs xs Hxs).
  - intros v x H. destruct v; try (simpl in H; discriminate). rewrite sv_map in H. apply rmap_ok in H as (ps & Hps & ->).
    cbn [ty_depth]. unfold table_of, somes_pairs. apply tab_depth_bound. intros k x Hin.
    destruct (tab_of_pairs_in _ _ _ Hin) as (k' & Hk'). apply somes_In in Hk'.
    unfold ser_entries in Hps. apply mapM_ok in Hps.
    clear - Hps Hk' IHt2. induction Hps as [|kv p es ps Hp _ IH]; [contradiction|]. destruct Hk' as [->|Hk']; [|apply IH, Hk'].
    apply rbind_ok in Hp as (s & _ & Hp). apply rmap_ok in Hp as (ox & Hox & E).
    destruct ox as [x0|]; [|discriminate]. simpl in E. injection E as _ <-.
    destruct (ser_map_value_cases ser_value t2 (snd kv)) as [(t' & -> & Hv & E2)|[_ E2]]; rewrite E2 in Hox; [discriminate|].
    apply rmap_ok in Hox as (x1 & Hx1 & E3). injection E3 as <-. apply (IHt2 _ _ Hx1).
  - intros v x H0. destruct v; try (simpl in H0; discriminate). rewrite sv_struct in H0.
    destruct (bytes_eqb n DT_NAME).
    + (* a struct the program named like the date-time tunnel: a date-time leaf or an error *)
      assert (G : forall fs vs acc x, ser_dt_struct fs vs acc = Ok x -> tv_depth x = 0).
      { clear. induction fs as [|[f t] fs IH]; intros [|v vs] acc x H; simpl in H; try discriminate.
        - destruct acc; [injection H as <-; reflexivity|discriminate].
        - destruct (bytes_eqb f DT_FIELD); [|apply (IH _ _ _ H)].
          apply rbind_ok in H as (d & _ & H). apply (IH _ _ _ H). }
      rewrite (G _ _ _ _ H0). lia.
    + apply rmap_ok in H0 as (ps & Hps & ->). cbn [ty_depth]. apply (dp_table fs vs ps H Hps).
  - intros v x H. destruct v; try (simpl in H; discriminate). rewrite sv_newtype in H. apply (IHt v x H).
  - intros v x H0. destruct v; try (simpl in H0; discriminate). rewrite sv_tuple_struct in H0. apply rmap_ok in H0 as (xs & Hxs & ->).
    cbn [ty_depth]. apply arr_depth_bound. apply (dp_tuple ts H vs xs Hxs).
  - intros v x H0. destruct v as [| | | | | | | | | | | | | |i p]; try (simpl in H0; discriminate). rewrite sv_enum in H0.
    destruct (pick_cases (ser_variant p) (Err EBadCase) vs i) as [([vn var] & Hn & E)|[_ E]]; rewrite E in H0; [|discriminate].
    assert (HQ : forall q y, ser_payload var q = Ok y -> S (tv_depth y) <= variant_depth var).
    { rewrite Forall_forall in H. apply (H (vn, var)). eapply nth_error_In; exact Hn. }
    assert (Hmax : variant_depth var <= ty_depth (TEnum n vs)).
    { cbn [ty_depth]. apply (fold_max_ge (fun nv : bytes * variant => variant_depth (snd nv)) vs (vn, var)). eapply nth_error_In; exact Hn. }
    unfold ser_variant in H0. simpl in H0. destruct var.
    + destruct p; try discriminate H0. injection H0 as <-. cbn [tv_depth]. lia.
    + apply rmap_ok in H0 as (y & Hy & ->). pose proof (HQ p y Hy). cbn [tv_depth fold_right snd]. lia.
    + apply rmap_ok in H0 as (y & Hy & ->). pose proof (HQ p y Hy). cbn [tv_depth fold_right snd]. lia.
    + apply rmap_ok in H0 as (y & Hy & ->). pose proof (HQ p y Hy). cbn [tv_depth fold_right snd]. lia.
  - intros p y H. simpl in H. discriminate.
  - intros p y H. rewrite sp_newtype in H. cbn [variant_depth]. apply le_n_S. apply (IHt p y H).
  - intros p y H0. destruct p; try (simpl in H0; discriminate). rewrite sp_tuple in H0. apply rmap_ok in H0 as (xs & Hxs & ->).
    cbn [variant_depth]. apply le_n_S. apply arr_depth_bound. apply (dp_tuple ts H vs xs Hxs).
  - intros p y H0. destruct p; try (simpl in H0; discriminate). rewrite sp_struct in H0. apply rmap_ok in H0 as (ps & Hps & ->).
    cbn [variant_depth]. apply le_n_S. apply (dp_table fs vs ps H Hps).
Qed.

(* the roots *)
Lemma ty_depth_struct n fs : ty_depth (TStruct n fs) = S (fold_right (fun ft acc => Nat.max (ty_depth (snd ft)) acc) 0 fs).
Proof. reflexivity. Qed.

Lemma toml_root_depth t v x : ser_toml_root t v = Ok x -> tv_depth x <= Nat.max 1 (ty_depth t).
Proof.
  intro H.
  assert (Edit : ser_edit_root t v = Ok x -> tv_depth x <= Nat.max 1 (ty_depth t)).
  { intro H0. apply edit_root_is_table in H0 as (es & -> & H0). pose proof (ser_depth_le t v _ H0). lia. }
  destruct t; try (apply Edit; destruct v; exact H).
  - destruct v as [| | | | | | | | | | | | | |i p]; try (apply Edit; exact H).
    simpl in H.
    match type of H with pick ?f ?d vs i = _ => destruct (pick_cases f d vs i) as [([vn var] & Hn & E)|[_ E]]; rewrite E in H end;
      [|discriminate].
    simpl in H. destruct var; try discriminate H.
    + apply Edit. exact H.
    + apply Edit. exact H.
    + destruct p; try discriminate H. destruct (zipM ser_value ts vs0); discriminate H.
Qed.

Theorem ser_text_depth r t v x : ser_text r t v = Ok x -> tv_depth x <= Nat.max 1 (ty_depth t).
Proof.
  intro H. destruct r; simpl in H; try (apply (toml_root_depth t v x H)).
  all: apply edit_root_is_table in H as (es & -> & H); pose proof (ser_depth_le t v _ H); lia.
Qed.
