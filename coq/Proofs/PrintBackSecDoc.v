(* Proofs/PrintBackSecDoc.v — C03, class (c): the parse of a document made of sections (key = value
   lines with a plain key, [table] and [[array of tables]] headers, comments, blank lines).  The
   invariant of the loop of document.rs: the sections read so far are the sections of the tree
   (as a multiset), each with the text it will print as. *)
From TV Require Import Base.Prelude Base.Winnow Spec.Lex Spec.Defs Spec.Syntax.
From TV Require Import Model.Tree Model.Parse Model.Document Model.Encode.
From TV Require Import Proofs.LexEquivBase Proofs.LexEquivKey
                       Proofs.GrammarDocLine
                       Proofs.TilingDefs Proofs.PrintBackBase Proofs.PrintBackEnc Proofs.PrintBackValue Proofs.PrintBackDoc Proofs.PrintBackKeyval
                       Proofs.PrintBackEnts Proofs.PrintBackSecs Proofs.PrintBackState
                       Proofs.PrintBackHKey Proofs.PrintBackFinal.
From TV Require Import Proofs.DocumentOps.
Require Import Lia ZifyBool ZifyN ZifyNat Sorting.Sorted Sorting.Permutation.

(* ---- on_keyval for a plain key, any section -------------------------------------------------------------------- *)
Lemma on_keyval_gen st k v items dec ps sp st' :
  st_current st = Tbl items dec false false ps sp ->
  on_keyval_sp st [] k (IValue v) = COk st' ->
  exists sp',
    st_root st' = st_root st /\ st_path st' = st_path st /\ st_position st' = st_position st /\ st_is_array st' = st_is_array st
    /\ st_trailing st' = None
    /\ st_current st' = Tbl (items ++ [(with_prefix k (kv_prefix st k), IValue v)]) dec false false ps sp'
    /\ (match sp with Some e => exists e', sp' = Some (fst e, e') | None => sp' = None end)
    /\ kv_get items (k_key k) = None.
Proof.
  intros Hc H. apply on_keyval_sp_inv in H as (st0 & E & ->). unfold on_keyval in E. rewrite Hc in E. cbn [t_span] in E. fold (kv_prefix st k) in E.
  set (P := kv_prefix st k) in *.
  assert (G : forall sp1, with_table_at (Tbl items dec false false ps sp1) [] true
                (fun table => if Bool.eqb (t_dotted table) true then CErr DuplicateKey
                              else match kv_get (t_items table) (k_key (with_prefix k P)) with
                                   | None => COk (t_set_items table (kv_push (t_items table) (with_prefix k P) (IValue v)), tt)
                                   | Some _ => CErr DuplicateKey end)
              = match kv_get items (k_key k) with
                | None => COk (Tbl (items ++ [(with_prefix k P, IValue v)]) dec false false ps sp1, tt)
                | Some _ => CErr DuplicateKey end).
  { intro sp1. cbn [with_table_at t_dotted Bool.eqb t_items t_set_items kv_push with_prefix set_leaf k_key]. destruct (kv_get items (k_key k)); reflexivity. }
  unfold with_prefix in G.
  destruct sp as [e|]; [destruct (item_span (IValue v)) as [vs|]|]; cbn [t_set_span] in E; rewrite G in E;
    (destruct (kv_get items (k_key k)) eqn:Eg; [discriminate|]); injection E as <-;
    eexists; cbn [st_root st_path st_trailing st_current st_position st_is_array set_dotted_spans]; repeat split; try reflexivity;
    try (eexists; reflexivity); try (destruct e; eexists; reflexivity).
Qed.

Section SecDoc.
  Variable s : bytes.
  Notation K := (hkey s).

  (* ---- a header line: text, spans, keys ------------------------------------------------------------------------ *)
  Lemma header_text_render arr i kp sp tr i1 : isrc s i -> header_text arr i = Ok ((kp, sp), tr) i1 ->
    exists j Y w c jt le,
      sp = (pos i, pos j) /\ splits i (hdr_open arr ++ Y ++ hdr_close arr) j /\ hdr_at s (pos i) arr Y
      /\ Forall K kp /\ kp <> [] /\ table_tok arr (hdr_open arr ++ Y ++ hdr_close arr) (map k_key kp)
      /\ ws_tok w /\ opt_comment c /\ splits j (w ++ c) jt /\ tr = (pos j, pos jt) /\ isrc s j
      /\ splits jt le i1 /\ lend le (rest i1) /\ isrc s i1.
  Proof.
    unfold header_text, pair_. intros Hi H. apply bind_inv in H as ([kp0 sp0] & j1 & H1 & H).
    apply bind_inv in H as (tr0 & j2 & H2 & H). apply ret_inv in H as [E ->]. injection E as <- <- <-.
    apply with_span_inv in H1 as (kp1 & H1 & E). injection E as <- ->.
    unfold delimited in H1. apply bind_inv in H1 as (u & k1 & Eo & H1). apply open_p_inv in Eo.
    apply bind_inv in H1 as (kp2 & k2 & Ek & H1). apply cut_err_inv in Ek.
    apply bind_inv in H1 as (u2 & k3 & Ec & H1). apply context_inv, cut_err_inv, close_p_inv in Ec.
    apply ret_inv in H1 as [<- ->].
    destruct (isrc_splits s i _ k1 Hi Eo) as [Hk1 _].
    pose proof (key_hkeys s k1 kp k2 Hk1 Ek) as HK.
    pose proof Ek as Ek'. apply key_sound in Ek' as (w1 & kt & w2 & Hw1 & Hkt & Hw2 & Sk & Hlen).
    destruct (isrc_splits s k1 _ k2 Hk1 Sk) as [Hk2 _]. destruct (isrc_splits s k2 _ k3 Hk2 Ec) as [Hj1 _].
    apply context_inv, cut_err_inv, line_trailing_read in H2 as (w & c & m1 & le & Hw & Hc & Swc & Esp & Sle & Hl).
    destruct (isrc_splits s k3 (w ++ c) m1 Hj1 Swc) as [Hm1 _]. destruct (isrc_splits s m1 le _ Hm1 Sle) as [Hi1 _].
    exists k3, (w1 ++ kt ++ w2), w, c, m1, le. split; [reflexivity|].
    split; [exact (splits_trans _ _ _ _ _ Eo (splits_trans _ _ _ _ _ Sk Ec))|].
    split.
    { exists i, k1, kp, k2, (rest k3). split; [exact Hi|]. split; [reflexivity|]. split; [exact Eo|]. split; [exact Ek|]. split; [exact Sk|].
      destruct Ec as [R _]. exact R. }
    split; [exact HK|]. split; [intros ->; apply (key_tok_nonempty _ _ Hkt); reflexivity|].
    split; [apply table_tok_eq; exists w1, kt, w2; rewrite <- !app_assoc; auto|].
    split; [exact Hw|]. split; [exact Hc|]. split; [exact Swc|]. split; [exact Esp|]. split; [exact Hj1|]. split; [exact Sle|]. split; [exact Hl|exact Hi1].
  Qed.

  (* ---- the invariant -------------------------------------------------------------------------------------------- *)
  (* what start_table / start_array_table / finalize_table leave alone at the root (they are a `frame`) *)
  Definition root_plain (r : tbl) : Prop := t_decor r = decor_default /\ t_position r = None /\ t_dotted r = false.

  Lemma frame_root_plain r r' : frame r r' -> root_plain r -> root_plain r'.
  Proof. intros (Fd & _ & Ft & Fp & _) (H1 & H2 & H3). unfold root_plain. rewrite Fd, Ft, Fp. auto. Qed.

  (* the root section is being read *)
  Definition rsec (st : pstate) (kvl : list (key * value)) : Prop :=
    st_root st = tbl_new /\ st_path st = [] /\ st_position st = 0%N /\
    (exists sp, st_current st = Tbl (map mk_item kvl) decor_default false false None sp) /\
    NoDup (map kk (map mk_item kvl)).

  (* a section opened by a header is being read *)
  Definition hsec (st : pstate) (done : list dsec) (a : bool) (lead trail : raw) (start : N) (Y : bytes)
             (kvl : list (key * value)) : Prop :=
    exists ppath k T0 e,
      pop_key (st_path st) = Some (ppath, k) /\ K k /\ Forall K ppath /\ st_is_array st = a /\
      st_current st = Tbl (T0 ++ map mk_item kvl) (decor_new lead trail) false false (Some (st_position st)) (Some (start, e)) /\
      vals T0 = [] /\ uks K T0 /\ NoDup (map kk (T0 ++ map mk_item kvl)) /\
      uk K (st_root st) /\ root_plain (st_root st) /\
      (a = false -> exists par, reach (st_root st) ppath = Some par /\ kv_get (t_items par) (k_key k) = None) /\
      Permutation (Proot (st_root st) ++ PI T0) (map d_sec done) /\
      (exists d0 ds, done = d0 :: ds /\ root_ok s d0 /\ Forall (hdr_ok s) ds) /\
      StronglySorted N.lt (map (fun d => fst (d_sec d)) done) /\ Forall (fun d => (fst (d_sec d) < st_position st)%N) done /\
      hdr_at s start a Y.

  Definition hdr_out (done : list dsec) (a : bool) (lead trail : raw) (Y : bytes) (outs : list bytes) : bytes :=
    concat (map d_out done) ++ raw_encode (traw s lead) [] ++ (hdr_open a ++ Y ++ hdr_close a) ++ raw_encode (traw s trail) [] ++ [x0a] ++ concat outs.

  (* the sections read so far with the text `out` they print as, the lines of the current one among
     them; the trivia `pend` read since *)
  Inductive sinv (st : pstate) (i : input) (out : bytes) (i0 : input) (pend : bytes) : Prop :=
  | si_root kvl outs :
      rsec st kvl -> Forall2 (line_out s) kvl outs -> out = concat outs -> pending s st i i0 pend -> sinv st i out i0 pend
  | si_hdr done a lead trail start Y kvl outs :
      hsec st done a lead trail start Y kvl -> Forall2 (line_out s) kvl outs -> out = hdr_out done a lead trail Y outs ->
      pending s st i i0 pend -> sinv st i out i0 pend.

  Lemma sinv_pending st i out i0 pend : sinv st i out i0 pend -> pending s st i i0 pend.
  Proof. intros [? ? _ _ _ H|? ? ? ? ? ? ? ? _ _ _ H]; exact H. Qed.

  (* ---- trivia ---------------------------------------------------------------------------------------------------- *)
  (* on_ws touches st_trailing only *)
  Lemma sinv_on_ws st i out i0 pend w i1 :
    sinv st i out i0 pend -> splits i w i1 -> sinv (on_ws st (pos i, pos i1)) i1 out i0 (pend ++ w).
  Proof.
    intros [kvl outs H Hu Eo Hp|done a lead trail start Y kvl outs H Hu Eo Hp] Sw.
    - apply (si_root _ _ _ _ _ kvl outs); [exact H|exact Hu|exact Eo|apply pending_on_ws; assumption].
    - apply (si_hdr _ _ _ _ _ done a lead trail start Y kvl outs); [exact H|exact Hu|exact Eo|apply pending_on_ws; assumption].
  Qed.

  Lemma sinv_trivia st i out i0 pend x j w i1 :
    sinv st i out i0 pend -> splits i x j -> splits j w i1 ->
    sinv (on_ws (on_ws st (pos i, pos j)) (pos j, pos i1)) i1 out i0 (pend ++ x ++ w).
  Proof. intros HI Sx Sw. rewrite app_assoc. apply sinv_on_ws; [|exact Sw]. apply sinv_on_ws; assumption. Qed.

  (* ---- key = value ------------------------------------------------------------------------------------------------ *)
  Lemma mk_item_push kvl k v : map mk_item (kvl ++ [(k, v)]) = kv_push (map mk_item kvl) k (IValue v).
  Proof. rewrite map_app. reflexivity. Qed.

  (* the pending trivia and the blanks in front of the key become the prefix of the key *)
  Lemma merged_prefix_text st i i0 pend k j0 w0 :
    st_trailing st = Some (pos i0, pos i) -> isrc s i0 -> splits i0 pend i -> splits i w0 j0 -> ws_tok w0 ->
    d_prefix (k_leaf k) = Some (raw_with_span (pos i, pos j0)) ->
    raw_encode (traw s (kv_prefix st k)) [] = ncr pend ++ w0.
  Proof.
    intros Htr Hi0 Spend S0 Hw0 Epre. unfold kv_prefix. rewrite Htr, Epre, raw_span_with_span. cbn [fst snd].
    destruct (pos i =? pos j0)%N eqn:Q.
    - apply N.eqb_eq in Q. assert (w0 = []) by (apply (splits_empty_iff i w0 j0 S0); exact Q). subst w0.
      cbv iota. rewrite (span_prints s i0 pend i [] Hi0 Spend). rewrite app_nil_r. reflexivity.
    - cbv iota. cbn [fst snd]. rewrite (span_prints s i0 (pend ++ w0) j0 [] Hi0 (splits_trans _ _ _ _ _ Spend S0)). rewrite ncr_app, (ncr_ws w0 Hw0). reflexivity.
  Qed.

  Lemma sinv_keyval st i out i0 pend k v st0 j0 w0 body j1 w i1 :
    sinv st i out i0 pend -> on_keyval_sp st [] k (IValue v) = COk st0 ->
    splits i w0 j0 -> ws_tok w0 -> d_prefix (k_leaf k) = Some (raw_with_span (pos i, pos j0)) ->
    (vplain v = true -> forall P z, kv_line s (with_prefix k P, v) ++ z = raw_encode (traw s P) [] ++ body ++ [x0a] ++ z) ->
    isrc s j1 -> splits j1 w i1 ->
    sinv (on_ws st0 (pos j1, pos i1)) i1 (out ++ ncr pend ++ w0 ++ body ++ [x0a]) j1 w.
  Proof.
    intros HI Eo S0 Hw0 Epre Hline Hj1 Sw.
    set (k' := with_prefix k (kv_prefix st k)). set (ol := (ncr pend ++ w0) ++ body ++ [x0a]).
    (* the new line, whichever section it goes to *)
    assert (Hol : forall kvl outs, Forall2 (line_out s) kvl outs -> Forall2 (line_out s) (kvl ++ [(k', v)]) (outs ++ [ol])).
    { intros kvl outs Hu. destruct (sinv_pending _ _ _ _ _ HI) as (Ht & Hi0 & Sp).
      apply Forall2_app; [exact Hu|]. constructor; [|constructor]. intros Hv z. cbn [snd] in Hv. unfold k'.
      rewrite (Hline Hv _ z), (merged_prefix_text st i i0 pend k j0 w0 Ht Hi0 Sp S0 Hw0 Epre). unfold ol. rewrite <- !app_assoc. reflexivity. }
    destruct HI as [kvl outs (Hr & Hp & Hq & (sp & Hc) & Hn) Hu Eout _|done a lead trail start Y kvl outs H Hu Eout _].
    - destruct (on_keyval_gen st k v _ _ _ _ st0 Hc Eo) as (sp' & Er' & Ep' & Eq' & Ea' & Et' & Ec' & _ & Hg).
      apply (si_root _ _ _ _ _ (kvl ++ [(k', v)]) (outs ++ [ol])); [|apply Hol, Hu| |apply pending_first; assumption].
      + unfold rsec, on_ws. cbn [st_root st_path st_current st_position]. rewrite Er', Ep', Eq', Ec'.
        split; [exact Hr|]. split; [exact Hp|]. split; [exact Hq|]. split; [exists sp'; rewrite map_app; reflexivity|].
        rewrite mk_item_push. apply nodup_push; assumption.
      + rewrite concat_app. cbn [concat]. rewrite app_nil_r, Eout. unfold ol. rewrite <- !app_assoc. reflexivity.
    - destruct H as (ppath & k0 & T0 & e & H1 & H2 & H3 & H4 & Hc & H6 & H7 & Hn & Hrest).
      destruct (on_keyval_gen st k v _ _ _ _ st0 Hc Eo) as (sp' & Er' & Ep' & Eq' & Ea' & Et' & Ec' & (e' & Esp') & Hg). cbn [fst] in Esp'.
      apply (si_hdr _ _ _ _ _ done a lead trail start Y (kvl ++ [(k', v)]) (outs ++ [ol])); [|apply Hol, Hu| |apply pending_first; assumption].
      + exists ppath, k0, T0, e'. unfold on_ws. cbn [st_root st_path st_current st_position st_is_array]. rewrite Er', Ep', Eq', Ea', Ec', Esp'.
        split; [exact H1|]. split; [exact H2|]. split; [exact H3|]. split; [exact H4|].
        split; [rewrite map_app, app_assoc; reflexivity|]. split; [exact H6|]. split; [exact H7|].
        split; [|exact Hrest]. rewrite mk_item_push. unfold kv_push. rewrite app_assoc. apply (nodup_push (T0 ++ map mk_item kvl)); assumption.
      + rewrite Eout. unfold hdr_out, ol. rewrite concat_app. cbn [concat]. rewrite app_nil_r, <- !app_assoc. reflexivity.
  Qed.

  (* ---- the end of a section --------------------------------------------------------------------------------------- *)
  Lemma PI_values kvl : PI (map mk_item kvl) = [].
  Proof. induction kvl as [|[k v] tl IH]; [reflexivity|]. cbn [map PI flat_map mk_item snd PIt app]. exact IH. Qed.
  Lemma vals_values kvl : vals (map mk_item kvl) = kvl.
  Proof. induction kvl as [|[k v] tl IH]; [reflexivity|]. cbn [map mk_item]. unfold vals in *. cbn [flat_map fst snd app]. rewrite IH. reflexivity. Qed.
  Lemma uks_values kvl : uks K (map mk_item kvl).
  Proof. apply Forall_forall. intros kv Hin. apply in_map_iff in Hin as ([k v] & <- & _). cbn [mk_item fst snd]. split; [discriminate|exact I]. Qed.

  Lemma sorted_snoc (l : list N) x : StronglySorted N.lt l -> Forall (fun y => (y < x)%N) l -> StronglySorted N.lt (l ++ [x]).
  Proof.
    induction 1 as [|y l Hs IH Hy]; intro Hx; cbn [app]; [repeat constructor|]. inversion Hx; subst.
    constructor; [apply IH; assumption|]. apply Forall_app. split; [exact Hy|constructor; [assumption|constructor]].
  Qed.

  (* what is known once the current section is attached *)
  Definition fin_facts (st stf : pstate) (out : bytes) : Prop :=
    exists done,
      stf = finalized st (st_root stf) /\ uk K (st_root stf) /\ root_plain (st_root stf)
      /\ Permutation (Proot (st_root stf)) (map d_sec done)
      /\ (exists d0 ds, done = d0 :: ds /\ root_ok s d0 /\ Forall (hdr_ok s) ds)
      /\ StronglySorted N.lt (map (fun d => fst (d_sec d)) done)
      /\ Forall (fun d => (fst (d_sec d) < st_position st + 1)%N) done
      /\ concat (map d_out done) = out.

  Lemma sinv_finalize st i out i0 pend stf : sinv st i out i0 pend -> finalize_table st = COk stf -> fin_facts st stf out.
  Proof.
    intros [kvl outs (Hr & Hp & Hq & (sp & Hc) & Hn) Hu Eout _|done a lead trail start Y kvl outs H Hu Eout _] Hf.
    - (* the root section becomes the root table *)
      rewrite finalize_table_eq, Hp, Hr in Hf. cbn [pop_key rev tbl_is_empty tbl_new t_items forallb] in Hf. injection Hf as <-.
      exists [(sec_of (st_current st) false, @nil byte, concat outs)]. cbn [finalized st_root]. rewrite Hc.
      split; [reflexivity|]. split.
      { apply uk_eq. cbn [t_items t_implicit]. split; [exact Hn|]. split; [discriminate|apply uks_values]. }
      split; [repeat split|]. split.
      { unfold Proot. cbn [t_items map d_sec fst]. rewrite PI_values. reflexivity. }
      split.
      { eexists _, []. split; [reflexivity|]. split; [|constructor]. unfold root_ok, sec_of. cbn [fst snd t_position t_items]. split; [reflexivity|].
        rewrite vals_values. intro Hpl. apply (concat_outs s kvl outs Hu Hpl). }
      split; [cbn [map]; repeat constructor|]. split; [constructor; [|constructor]; unfold d_sec, sec_of; cbn [fst t_position]; lia|].
      cbn [map concat d_out snd]. rewrite app_nil_r. symmetry. exact Eout.
    - destruct H as (ppath & k & T0 & e & H1 & H2 & H3 & H4 & Hc & H6 & H7 & Hn & H9 & Hrp & H12 & H13 & (d0 & ds & Ed & Hd0 & Hds) & H15 & H16 & H17).
      assert (Huc : uk K (st_current st)).
      { rewrite Hc. apply uk_eq. cbn [t_items t_implicit]. split; [exact Hn|]. split; [discriminate|]. apply Forall_app. split; [exact H7|apply uks_values]. }
      assert (Habs : st_is_array st = false -> exists par, reach (st_root st) ppath = Some par /\ kv_get (t_items par) (k_key k) = None)
        by (rewrite H4; exact H12).
      destruct (finalize_secs K st stf ppath k H1 Hf H9 Huc H2 H3 Habs) as (Estf & Hfr & Hur' & Hperm).
      set (xc := sec_of (st_current st) a).
      set (oc := raw_encode (traw s lead) [] ++ (hdr_open a ++ Y ++ hdr_close a) ++ raw_encode (traw s trail) [] ++ [x0a] ++ concat outs).
      assert (Hpos : (0 < st_position st)%N).
      { subst done. inversion H16 as [|? ? Hlt _]; subst. destruct d0 as [[x0 Y0] o0]. destruct Hd0 as [E0 _]. unfold d_sec in Hlt. cbn [fst] in Hlt. lia. }
      assert (Exc : xc = (st_position st, (a, decor_new lead trail, Some start, kvl))).
      { unfold xc, sec_of. rewrite Hc. cbn [t_position t_decor t_span t_items fst]. rewrite vals_app, H6, vals_values. reflexivity. }
      exists (done ++ [(xc, Y, oc)]). split; [exact Estf|]. split; [exact Hur'|]. split; [exact (frame_root_plain _ _ Hfr Hrp)|]. split.
      { rewrite Hperm, H4, P_eq. rewrite map_app. cbn [map d_sec fst].
        assert (Hown : own (st_current st) a = [xc]).
        { unfold own. rewrite Hc. cbn [t_implicit andb negb]. rewrite orb_true_r. rewrite <- Hc. reflexivity. }
        rewrite Hown, Hc. cbn [t_items]. rewrite PI_app, PI_values, app_nil_r. rewrite <- H13.
        rewrite <- !app_assoc. apply Permutation_app_head. apply Permutation_app_comm. }
      split.
      { exists d0, (ds ++ [(xc, Y, oc)]). split; [rewrite Ed; reflexivity|]. split; [exact Hd0|]. apply Forall_app. split; [exact Hds|].
        constructor; [|constructor]. exists (st_position st), a, lead, trail, start, kvl. split; [exact Exc|]. split; [lia|]. split; [exact H17|].
        intro Hpl. rewrite Exc. cbn [stext decor_new d_prefix d_suffix]. rewrite (concat_outs s kvl outs Hu Hpl). reflexivity. }
      split.
      { rewrite map_app. cbn [map d_sec fst]. apply sorted_snoc; [exact H15|]. rewrite Forall_map. rewrite Exc. cbn [fst]. exact H16. }
      split.
      { apply Forall_app. split; [eapply Forall_impl; [|exact H16]; intros d Hd; cbn beta in Hd; lia|].
        constructor; [|constructor]. unfold d_sec. cbn [fst]. rewrite Exc. cbn [fst]. lia. }
      rewrite map_app, concat_app. cbn [map concat d_out snd]. rewrite app_nil_r, Eout. unfold hdr_out, oc. rewrite <- !app_assoc. reflexivity.
  Qed.

  (* ---- a header ------------------------------------------------------------------------------------------------- *)
  Lemma Forall_pop kp ppath k : pop_key kp = Some (ppath, k) -> Forall K kp -> K k /\ Forall K ppath.
  Proof.
    intros Ep HK. apply pop_key_some in Ep. subst kp. apply Forall_app in HK as [H1 H2]. inversion H2; subst. auto.
  Qed.

  Lemma sinv_header arr st i out i0 pend kp j jt Y w c st1 jl w' i1 :
    sinv st i out i0 pend -> isrc s i ->
    on_header arr st kp (pos j, pos jt) (pos i, pos j) = COk st1 ->
    hdr_at s (pos i) arr Y -> Forall K kp -> kp <> [] -> isrc s j -> splits j (w ++ c) jt -> ws_tok w -> opt_comment c ->
    isrc s jl -> splits jl w' i1 ->
    sinv (on_ws st1 (pos jl, pos i1)) i1 (out ++ ncr pend ++ (hdr_open arr ++ Y ++ hdr_close arr) ++ (w ++ c) ++ [x0a]) jl w'.
  Proof.
    intros HI Hi Hh Hat HK Hne Hj Swc Hw Hc Hjl Sw'.
    unfold on_header in Hh. destruct kp as [|k0 kp0] eqn:Ekp; [congruence|]. rewrite <- Ekp in *. clear Ekp k0 kp0.
    destruct (finalize_table st) as [stf| |] eqn:Ef; try discriminate.
    destruct (sinv_finalize st i out i0 pend stf HI Ef) as (done & Estf & Hur & Hrp & Hperm & Hdone & Hsort & Hlt & Eout).
    unfold take_trailing in Hh. cbv zeta beta iota in Hh.
    set (st2 := mkState (st_root stf) None (st_position stf) (st_current stf) (st_is_array stf) (st_path stf)) in *.
    set (lead := match st_trailing stf with Some sp => raw_with_span sp | None => REmpty end) in *.
    set (trail := raw_with_span (pos j, pos jt)) in *.
    assert (Elead : raw_encode (traw s lead) [] = ncr pend).
    { unfold lead. rewrite Estf. cbn [finalized st_trailing]. apply (pending_prints s st i i0 pend), (sinv_pending _ _ _ _ _ HI). }
    assert (Etrail : raw_encode (traw s trail) [] = w ++ c).
    { unfold trail. rewrite (span_prints s j (w ++ c) jt [] Hj Swc), ncr_app, (ncr_ws w Hw), (ncr_opt_comment c Hc). reflexivity. }
    assert (Ecur2 : t_items (st_current st2) = []) by (unfold st2; rewrite Estf; reflexivity).
    assert (Epos2 : st_position st2 = st_position st) by (unfold st2; rewrite Estf; reflexivity).
    destruct (pop_key_nonempty kp Hne) as (ppath & k & Ep). destruct (Forall_pop kp ppath k Ep HK) as [Hk Hpp].
    assert (Hlt' : Forall (fun d : dsec => (fst (d_sec d) < st_position st2 + 1)%N) done) by (rewrite Epos2; exact Hlt).
    assert (Eo : out ++ ncr pend ++ (hdr_open arr ++ Y ++ hdr_close arr) ++ (w ++ c) ++ [x0a] = hdr_out done arr lead trail Y []).
    { unfold hdr_out. rewrite Eout, Elead, Etrail. cbn [concat]. rewrite app_nil_r, <- !app_assoc. reflexivity. }
    destruct arr.
    - (* [[array of tables]] *)
      destruct (start_array_secs K st2 kp (decor_new lead trail) (pos i, pos j) st1 ppath k Hh Ep Hur Hpp Hk) as (Est1 & Hfr & Hur1 & Hperm1).
      apply (si_hdr _ _ _ _ _ done true lead trail (pos i) Y [] []);
        [|constructor|exact Eo|apply pending_first; [rewrite Est1; reflexivity|assumption..]].
      exists ppath, k, [], (pos j). rewrite Est1. unfold open_table, on_ws. cbn [st_root st_path st_current st_position st_is_array].
      split; [exact Ep|]. split; [exact Hk|]. split; [exact Hpp|]. split; [reflexivity|].
      split; [rewrite Ecur2; reflexivity|].
      split; [reflexivity|]. split; [constructor|]. split; [constructor|]. split; [exact Hur1|]. split; [exact (frame_root_plain _ _ Hfr Hrp)|].
      split; [discriminate|]. split; [cbn [PI flat_map]; rewrite app_nil_r, Hperm1; exact Hperm|].
      split; [exact Hdone|]. split; [exact Hsort|]. split; [exact Hlt'|exact Hat].
    - (* [table] *)
      destruct (start_table_secs K st2 kp (decor_new lead trail) (pos i, pos j) st1 ppath k Hh Ep Hur Hpp Ecur2)
        as (T0 & Est1 & HvT & HuT & HnT & Hfr & Hur1 & Hperm1 & Habs).
      apply (si_hdr _ _ _ _ _ done false lead trail (pos i) Y [] []);
        [|constructor|exact Eo|apply pending_first; [rewrite Est1; reflexivity|assumption..]].
      exists ppath, k, T0, (pos j). rewrite Est1. unfold open_table, on_ws. cbn [st_root st_path st_current st_position st_is_array t_items].
      split; [exact Ep|]. split; [exact Hk|]. split; [exact Hpp|]. split; [reflexivity|].
      split; [rewrite app_nil_r; reflexivity|].
      split; [exact HvT|]. split; [exact HuT|]. split; [rewrite app_nil_r; exact HnT|]. split; [exact Hur1|]. split; [exact (frame_root_plain _ _ Hfr Hrp)|].
      split; [intros _; exact Habs|]. split; [rewrite Hperm1; exact Hperm|].
      split; [exact Hdone|]. split; [exact Hsort|]. split; [exact Hlt'|exact Hat].
  Qed.

  (* ---- one iteration of the loop --------------------------------------------------------------------------------- *)
  Definition sec_stmt (st : astmt) : bool := match st with SKeyVal p _ => Nat.eqb (length p) 1 | _ => true end.
  Definition secl (l : list astmt) : bool := forallb sec_stmt l.

  Definition step2 (st : pstate) (i : input) (st1 : pstate) (i1 : input) (l : list astmt) (o : bytes) : Prop :=
    forall out i0 pend, sinv st i out i0 pend -> secl l = true ->
      exists out' i0' pend', sinv st1 i1 out' i0' pend' /\ out' ++ ncr pend' = out ++ ncr pend ++ o.

  Lemma doc_line_render2 st i st1 i1 : isrc s i -> doc_line st i = Ok st1 i1 ->
    exists w0 e l o le w,
      ws_tok w0 /\ item_text e l o /\ ws_tok w /\ splits i (w0 ++ e ++ le ++ w) i1
      /\ (newline_tok le \/ (le = [] /\ w = [] /\ rest i1 = [])) /\ isrc s i1
      /\ step2 st i st1 i1 l (w0 ++ o ++ le_out l le ++ w).
  Proof.
    intros Hi H. destruct (doc_line_toks st i st1 i1 H) as (st0 & j1 & w & Hr & Hw & Sw & ->).
    destruct Hr as [c le Hc S1 Hl|nl Hn S1|arr kp sp tr st' H2 Eo|p k v st' H2 Eo].
    - (* a comment line: trivia *)
      destruct (isrc_splits s i (c ++ le) j1 Hi S1) as [Hj1 _]. destruct (isrc_splits s j1 w i1 Hj1 Sw) as [Hi1 _].
      exists [], c, [], c, le, w. split; [reflexivity|]. split; [apply itx_comment, Hc|]. split; [exact Hw|].
      split; [pose proof (splits_trans _ _ _ _ _ S1 Sw) as S; rewrite <- !app_assoc in S; exact S|].
      split; [exact (lend_then_ws le j1 w i1 Hl Sw)|]. split; [exact Hi1|].
      intros out i0 pend HI _. exists out, i0, (pend ++ (c ++ le) ++ w). split; [apply sinv_trivia; assumption|].
      rewrite !ncr_app, (ncr_comment c Hc), (ncr_ws w Hw), (ncr_lend le _ Hl). cbn [app]. rewrite <- !app_assoc. reflexivity.
    - (* a blank line: trivia *)
      destruct (isrc_splits s i nl j1 Hi S1) as [Hj1 _]. destruct (isrc_splits s j1 w i1 Hj1 Sw) as [Hi1 _].
      exists [], [], [], [], nl, w. split; [reflexivity|]. split; [apply itx_blank|]. split; [exact Hw|].
      split; [exact (splits_trans _ _ _ _ _ S1 Sw)|]. split; [left; exact Hn|]. split; [exact Hi1|].
      intros out i0 pend HI _. exists out, i0, (pend ++ nl ++ w). split; [apply sinv_trivia; assumption|].
      rewrite !ncr_app, (ncr_newline nl Hn), (ncr_ws w Hw), (newline_le_out [] nl Hn). cbn [app]. rewrite <- ?app_assoc. reflexivity.
    - (* a table header *)
      destruct (header_text_render arr i kp sp tr j1 Hi H2)
        as (jh & Y & wt & c & jt & le & -> & Sh & Hat & HK & Hne & Htok & Hwt & Hc & Swc & -> & Hjh & Sle & Hl & Hj1).
      destruct (isrc_splits s j1 w i1 Hj1 Sw) as [Hi1 _].
      exists [], ((hdr_open arr ++ Y ++ hdr_close arr) ++ wt ++ c), [if arr then SArrHeader (map k_key kp) else SHeader (map k_key kp)],
             ((hdr_open arr ++ Y ++ hdr_close arr) ++ wt ++ c), le, w.
      split; [reflexivity|]. split; [apply header_item_text; assumption|]. split; [exact Hw|].
      split; [pose proof (splits_trans _ _ _ _ _ Sh (splits_trans _ _ _ _ _ Swc (splits_trans _ _ _ _ _ Sle Sw))) as S; cbn [app]; rewrite <- ?app_assoc; rewrite <- ?app_assoc in S; exact S|].
      split; [exact (lend_then_ws le j1 w i1 Hl Sw)|]. split; [exact Hi1|].
      intros out i0 pend HI _.
      eexists _, j1, w. split; [apply (sinv_header arr st i out i0 pend kp jh jt Y wt c st' j1 w i1); assumption|].
      rewrite (ncr_ws w Hw), (lend_le_out_stmt _ le _ Hl). cbn [app]. rewrite <- !app_assoc. reflexivity.
    - (* key = value *)
      destruct (parse_keyval_render s i _ j1 Hi H2)
        as (j0 & w0 & kt & q & w1 & w2 & t & a & o & wt & c & le & Hw0 & Hkt & Hw1 & Hw2 & Ht & Hwt & Hc & S0 & Sp & Hl & Hj1 & Hflat).
      destruct (isrc_splits s j1 w i1 Hj1 Sw) as [Hi1 _].
      exists w0, ((kt ++ w1 ++ [x3d] ++ w2 ++ t) ++ wt ++ c), [SKeyVal q a], ((kt ++ w1 ++ [x3d] ++ w2 ++ o) ++ wt ++ c), le, w.
      split; [exact Hw0|]. split; [apply itx_keyval; assumption|]. split; [exact Hw|].
      split; [pose proof (splits_trans _ _ _ _ _ Sp Sw) as S; rewrite <- !app_assoc in *; exact S|].
      split; [exact (lend_then_ws le j1 w i1 Hl Sw)|]. split; [exact Hi1|].
      intros out i0 pend HI Hf. cbn [secl forallb sec_stmt] in Hf. rewrite andb_true_r in Hf.
      apply Nat.eqb_eq in Hf. destruct (Hflat Hf) as (k1 & v1 & E & Epre & Hline). injection E as -> -> ->.
      eexists _, j1, w. split.
      + apply (sinv_keyval st i out i0 pend k1 v1 st' j0 w0 ((kt ++ w1 ++ [x3d] ++ w2 ++ o) ++ wt ++ c) j1 w i1 HI Eo S0 Hw0 Epre); [|exact Hj1|exact Sw].
        intros Hv P z. rewrite (Hline Hv P z). reflexivity.
      + rewrite (ncr_ws w Hw), (lend_le_out_stmt _ le _ Hl). rewrite <- !app_assoc. reflexivity.
  Qed.

  (* ---- the loop ------------------------------------------------------------------------------------------------- *)
  Lemma step2_nil st i : step2 st i st i [] [].
  Proof. intros out i0 pend HI _. exists out, i0, pend. split; [exact HI|]. rewrite !app_nil_r. reflexivity. Qed.

  Lemma step2_trans st i st1 i1 st2 i2 l1 o1 l2 o2 :
    step2 st i st1 i1 l1 o1 -> step2 st1 i1 st2 i2 l2 o2 -> step2 st i st2 i2 (l1 ++ l2) (o1 ++ o2).
  Proof.
    intros H1 H2 out i0 pend HI Hf. unfold secl in Hf. rewrite forallb_app in Hf. apply andb_true_iff in Hf as [Hf1 Hf2].
    destruct (H1 out i0 pend HI Hf1) as (out1 & i01 & pend1 & HI1 & E1).
    destruct (H2 out1 i01 pend1 HI1 Hf2) as (out2 & i02 & pend2 & HI2 & E2).
    exists out2, i02, pend2. split; [exact HI2|]. rewrite E2, (app_assoc out1), E1, <- !app_assoc. reflexivity.
  Qed.

  Definition doc_loop_render2 : forall fuel st i st' i', isrc s i -> doc_loop fuel st i = Ok st' i' ->
    exists t l o, splits i t i' /\ lines_text t l o /\ isrc s i' /\ step2 st i st' i' l o :=
    doc_loop_lines s step2 step2_nil step2_trans doc_line_render2.
End SecDoc.
