(* Proofs/AccessorsTomlSpec.v — toml::Value's read API (Model/AccessorsToml.v) on EVERY value. *)
From TV Require Import Base.Prelude Spec.SerdeData Extract.Show Model.AccessorsToml Proofs.AccessorsSpec.
Require Import String Lia.

Lemma tv_kind_exclusive v :
  count_true [tv_is_str v; tv_is_integer v; tv_is_float v; tv_is_bool v; tv_is_datetime v; tv_is_array v; tv_is_table v] = 1.
Proof. destruct v; reflexivity. Qed.

(* same_type is exactly "same type name", hence an equivalence with the seven kinds as its classes *)
Lemma tv_same_type_spec a b : tv_same_type a b = true <-> tv_type_str a = tv_type_str b.
Proof. destruct a, b; vm_compute; split; intro H; try reflexivity; discriminate H. Qed.
Lemma tv_same_type_refl a : tv_same_type a a = true.
Proof. apply tv_same_type_spec. reflexivity. Qed.
Lemma tv_same_type_sym a b : tv_same_type a b = tv_same_type b a.
Proof. unfold tv_same_type. apply N.eqb_sym. Qed.
Lemma tv_same_type_trans a b c : tv_same_type a b = true -> tv_same_type b c = true -> tv_same_type a c = true.
Proof. rewrite !tv_same_type_spec. congruence. Qed.
(* ... and the flags are same_type against one probe per kind *)
Lemma tv_flags_are_same_type v :
  map (tv_same_type v) tv_probes
  = [tv_is_str v; tv_is_integer v; tv_is_float v; tv_is_bool v; tv_is_datetime v; tv_is_array v; tv_is_table v].
Proof. destruct v; reflexivity. Qed.

(* every downcast answers exactly on its own constructor, with the stored payload *)
Lemma tv_as_spec v :
  (forall s, tv_as_str v = Some s <-> v = VStr s) /\ (forall z, tv_as_integer v = Some z <-> v = VInt z)
  /\ (forall b, tv_as_float v = Some b <-> v = VFloat b) /\ (forall b, tv_as_bool v = Some b <-> v = VBool b)
  /\ (forall d, tv_as_datetime v = Some d <-> v = VDatetime d) /\ (forall xs, tv_as_array v = Some xs <-> v = VArr xs)
  /\ (forall es, tv_as_table v = Some es <-> v = VTab es).
Proof. destruct v; cbn; repeat split; intro H; try discriminate H; inversion H; reflexivity. Qed.

Lemma tv_type_str_flags v :
  (tv_type_str v = str "string" <-> tv_is_str v = true) /\ (tv_type_str v = str "integer" <-> tv_is_integer v = true)
  /\ (tv_type_str v = str "float" <-> tv_is_float v = true) /\ (tv_type_str v = str "boolean" <-> tv_is_bool v = true)
  /\ (tv_type_str v = str "datetime" <-> tv_is_datetime v = true) /\ (tv_type_str v = str "array" <-> tv_is_array v = true)
  /\ (tv_type_str v = str "table" <-> tv_is_table v = true).
Proof. destruct v; vm_compute; repeat split; intro H; try reflexivity; discriminate H. Qed.

(* lookups: the i-th element / the entry under the key, None one past the end / on any other kind *)
Lemma tv_index_usize_spec xs i : tv_index_usize i (VArr xs) = nth_error xs i.
Proof. reflexivity. Qed.
Lemma tv_index_usize_end xs : tv_index_usize (List.length xs) (VArr xs) = None.
Proof. cbn. apply nth_error_None. lia. Qed.
Lemma tv_index_usize_other v i : tv_is_array v = false -> tv_index_usize i v = None.
Proof. destruct v; cbn; intro H; try reflexivity; discriminate H. Qed.
Lemma tv_index_str_other v k : tv_is_table v = false -> tv_index_str k v = None.
Proof. destruct v; cbn; intro H; try reflexivity; discriminate H. Qed.
Lemma tv_map_get_iter es k v : NoDup (map fst es) -> In (k, v) es -> tv_map_get es k = Some v.
Proof.
  induction es as [|[k0 v0] tl IH]; intros Hnd Hin; [destruct Hin|].
  cbn [tv_map_get]. inversion Hnd as [|? ? Hnotin Hnd']; subst. destruct Hin as [Heq|Hin].
  - inversion Heq; subst. rewrite bytes_eqb_refl. reflexivity.
  - destruct (bytes_eqb k0 k) eqn:E.
    + apply bytes_eqb_eq in E. subst. exfalso. apply Hnotin. apply (in_map fst tl (k, v)). exact Hin.
    + apply IH; assumption.
Qed.
Lemma tv_index_str_iter es k v : NoDup (map fst es) -> In (k, v) es -> tv_index_str k (VTab es) = Some v.
Proof. intros. cbn. apply tv_map_get_iter; assumption. Qed.

(* ---- double-ended reading (map.rs delegate_iterator!: next / next_back on one iterator) ----------------------------
   alternating next() / next_back() hands out every entry exactly once: the sequence read is a permutation of the
   forward sequence (and its first element is the first entry) *)
Require Import Permutation.
Lemma alternate_perm fuel (l : list bytes) : List.length l < fuel -> Permutation (alternate fuel l) l.
Proof.
  revert l. induction fuel as [|f IH]; intros l Hl; [lia|].
  destruct l as [|x tl]; [constructor|]. cbn [alternate].
  destruct (rev tl) as [|y rtl] eqn:E.
  - assert (tl = []) as -> by (apply (f_equal (@rev bytes)) in E; rewrite rev_involutive in E; exact E). constructor. constructor.
  - assert (Htl : tl = rev rtl ++ [y]) by (apply (f_equal (@rev bytes)) in E; rewrite rev_involutive in E; cbn in E; exact E).
    subst tl. constructor.
    apply Permutation_trans with (y :: rev rtl); [|apply Permutation_cons_append].
    constructor. apply IH. cbn [List.length] in Hl. rewrite app_length in Hl. cbn in Hl. lia.
Qed.
Lemma alternate_reads_all (l : list bytes) : Permutation (alternate (S (List.length l)) l) l.
Proof. apply alternate_perm. lia. Qed.
Lemma back_is_reverse (es : list (bytes * tomlval)) :
  rev (rev (List.map fst es)) = List.map fst es.
Proof. apply rev_involutive. Qed.
