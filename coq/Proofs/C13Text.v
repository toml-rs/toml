(* Proofs/C13Text.v — property C13 at the level of text (Proofs/C13TextModel.v): the decoding routes agree. *)
From TV Require Import Base.Prelude Base.Utf8.
From TV Require Import Model.Numbers Model.Tree Model.Document Model.Encode Model.Build.
From TV Require Import Spec.SerdeData Model.De Model.SerdeRoutes Model.SerDoc.
From TV Require Import Proofs.SpansDefs Proofs.SpansDespan Proofs.SpansDespanTotal Proofs.NoPanicTop.
From TV Require Import Proofs.RoutesDecode.
From TV Require Proofs.DefsEquivBase Proofs.DefsEquivSpec Proofs.FrontEndsReady.
From TV Require Import Proofs.C13TextModel.
Require Import Lia.

(* into_mut does not change what the deserializer walks *)
Lemma omap_list_F2 {A B} (f : A -> option B) : forall l l', omap_list f l = Some l' -> Forall2 (fun a b => f a = Some b) l l'.
Proof.
  induction l as [|a l IH]; intros l' H; cbn [omap_list] in H; [injection H as <-; constructor|].
  destruct (f a) as [b|] eqn:Fa; [|discriminate].
  change ((fix go (l : list A) : option (list B) :=
             match l with [] => Some [] | a :: tl => match f a, go tl with Some b, Some r => Some (b :: r) | _, _ => None end end) l)
    with (omap_list f l) in H.
  destruct (omap_list f l) as [r|] eqn:R; [|discriminate]. injection H as <-. constructor; [exact Fa|apply IH; reflexivity].
Qed.

Section DespanAbs.
  Variable src : bytes.
  Definition avi (it : item) : list Build.aval := match it with IValue e => [abs_value e] | _ => [] end.
  Definition aki (kv : key * item) : list (bytes * Build.aval) := match kv with (k, IValue e) => [(k_key k, abs_value e)] | _ => [] end.
  Definition ati (kv : key * item) : list (bytes * anode) := match kv with (k, i0) => map (fun n => (k_key k, n)) (Build.abs_item i0) end.

  Definition Dv (v : value) : Prop := forall v', value_despan src v = Some v' -> abs_value v' = abs_value v.
  Definition Dt (t : tbl) : Prop := forall t', tbl_despan src t = Some t' -> Build.abs_tbl t' = Build.abs_tbl t.
  Definition Di (it : item) : Prop :=
    forall it', item_despan src it = Some it' -> Build.abs_item it' = Build.abs_item it /\ avi it' = avi it.

  Lemma kvs_abs (items items' : list (key * item)) :
    Forall (fun kv => Di (snd kv)) items -> omap_list (kv_despan src) items = Some items' ->
    flat_map aki items' = flat_map aki items /\ flat_map ati items' = flat_map ati items.
  Proof.
    intros IH H. apply omap_list_F2 in H. induction H as [|[k0 i0] [k i] l l' E _ IHl]; [auto|]. inversion IH as [|? ? H1 H2]; subst.
    destruct (IHl H2) as [A1 A2]. cbn [flat_map]. rewrite A1, A2. cbn [kv_despan] in E.
    destruct (key_despan src k0) as [k1|] eqn:K; [|discriminate]. destruct (item_despan src i0) as [i1|] eqn:I0; [|discriminate]. injection E as <- <-.
    destruct (H1 _ I0) as [B1 B2]. cbn [snd] in *.
    assert (Ek : k_key k1 = k_key k0).
    { unfold key_despan in K. destruct (decor_despan src (k_leaf k0)); [|discriminate]. destruct (decor_despan src (k_dotted k0)); [|discriminate].
      destruct (oraw_despan src (k_repr k0)); [|discriminate]. injection K as <-. reflexivity. }
    split; f_equal.
    - unfold aki. rewrite Ek. unfold avi in B2. destruct i1, i0; try discriminate; try reflexivity. injection B2 as ->. reflexivity.
    - unfold ati. rewrite Ek, B1. reflexivity.
  Qed.

  Theorem despan_abs : (forall v, Dv v) /\ (forall it, Di it) /\ (forall t, Dt t).
  Proof.
    apply tree_ind3.
    - intros x r d v' H. cbn [value_despan] in H. destruct (oraw_despan src r); [|discriminate]. destruct (decor_despan src d); [|discriminate].
      injection H as <-. reflexivity.
    - intros vals tr c d sp IH v' H. rewrite value_despan_array in H.
      destruct (omap_list (item_despan src) vals) as [vals'|] eqn:V; [|discriminate]. destruct (raw_despan src tr); [|discriminate].
      destruct (decor_despan src d); [|discriminate]. injection H as <-. cbn [abs_value]. f_equal.
      apply omap_list_F2 in V. induction V as [|a b l l' E _ IHl]; [reflexivity|]. inversion IH as [|? ? H1 H2]; subst.
      cbn [flat_map]. rewrite (IHl H2). f_equal. apply (H1 _ E).
    - intros items pre im dt d sp IH v' H. rewrite value_despan_inline in H.
      destruct (omap_list (kv_despan src) items) as [items'|] eqn:V; [|discriminate]. destruct (raw_despan src pre); [|discriminate].
      destruct (decor_despan src d); [|discriminate]. injection H as <-. cbn [abs_value]. f_equal. apply (kvs_abs items items' IH V).
    - intros it' H. injection H as <-. auto.
    - intros v IH it' H. change (item_despan src (IValue v)) with (optmap IValue (value_despan src v)) in H.
      destruct (value_despan src v) as [v'|] eqn:E; [|discriminate]. injection H as <-. cbn [Build.abs_item avi]. rewrite (IH _ E). auto.
    - intros t IH it' H. change (item_despan src (ITable t)) with (optmap ITable (tbl_despan src t)) in H.
      destruct (tbl_despan src t) as [t'|] eqn:E; [|discriminate]. injection H as <-. cbn [Build.abs_item avi]. rewrite (IH _ E). auto.
    - intros ts sp IH it' H. rewrite item_despan_aot in H. destruct (omap_list (tbl_despan src) ts) as [ts'|] eqn:E; [|discriminate]. injection H as <-.
      cbn [Build.abs_item avi]. split; [|reflexivity]. do 2 f_equal. apply omap_list_F2 in E.
      induction E as [|a b l l' Eab _ IHl]; [reflexivity|]. inversion IH as [|? ? H1 H2]; subst. cbn [map]. rewrite (IHl H2), (H1 _ Eab). reflexivity.
    - intros items d im dt p sp IH t' H. rewrite tbl_despan_eq in H. destruct (omap_list (kv_despan src) items) as [items'|] eqn:V; [|discriminate].
      destruct (decor_despan src d); [|discriminate]. injection H as <-. cbn [Build.abs_tbl]. apply (kvs_abs items items' IH V).
  Qed.
End DespanAbs.

Lemma into_mut_walk back s d root : into_mut s d = Some root -> walk back root = walk back (doc_root d).
Proof. unfold into_mut, walk. intro H. rewrite (proj2 (proj2 (despan_abs s)) (doc_root d) root H). reflexivity. Qed.

(* the root of a parsed document as the deserializer sees it: a table with distinct keys *)
Lemma abs_item_single it : DefsEquivBase.mok_item it = true -> exists n, Build.abs_item it = [n].
Proof. destruct it; [discriminate|eexists; reflexivity..]. Qed.

Lemma walk_keys t : DefsEquivBase.mok_tbl t = true -> map fst (Build.abs_tbl t) = map fst (DefsEquivBase.abs_tbl t).
Proof.
  rewrite DefsEquivBase.mok_tbl_eq, DefsEquivBase.abs_tbl_eq. destruct t as [items d im dt p sp]. cbn [t_items Build.abs_tbl].
  unfold DefsEquivBase.mok_items, DefsEquivBase.abs_items. induction items as [|[k it] tl IH]; [reflexivity|]. cbn [forallb snd]. intro H.
  apply andb_true_iff in H as [Hi Hm]. cbn [flat_map map]. rewrite map_app, (IH Hm). destruct (abs_item_single it Hi) as (n & ->). reflexivity.
Qed.

(* the first key of the root table spells the private name of the date-time tunnel (F14) *)
Definition root_first_private (d : doc) : bool :=
  match t_items (doc_root d) with (k, _) :: _ => bytes_eqb (k_key k) DT_FIELD | [] => false end.

Lemma walk_is_table back t : exists es, walk back t = VTab es /\ map fst es = map fst (Build.abs_tbl t).
Proof. unfold walk, tomlval_of_abs. eexists. split; [reflexivity|]. rewrite map_map. reflexivity. Qed.

Theorem parsed_root_plain back s d : parse_document s = POk d -> root_first_private d = false -> plain_root (walk back (doc_root d)) = true.
Proof.
  intros Hp Hf. destruct (FrontEndsReady.parse_document_swf s d Hp) as [Hm Hs]. destruct (walk_is_table back (doc_root d)) as (es & -> & Ek).
  cbn [plain_root]. rewrite Ek, (walk_keys _ Hm). apply DefsEquivSpec.swf_split in Hs as [_ Hn]. rewrite (FrontEndsReady.snodup_nodup _ Hn). cbn [andb].
  destruct es as [|[k x] es']; [reflexivity|]. cbn [map fst] in Ek. rewrite (walk_keys _ Hm), DefsEquivBase.abs_tbl_eq in Ek.
  unfold root_first_private in Hf. destruct (t_items (doc_root d)) as [|[k0 it0] tl]; [discriminate|]. cbn [DefsEquivBase.abs_items map DefsEquivBase.abs_kv fst] in Ek.
  injection Ek as -> _. rewrite Hf. reflexivity.
Qed.

(* (a) the routes agree *)
Lemma lift_ok r o : lift r = TOk o -> r = Ok o.
Proof. destruct r as [o'|e]; [intro H; injection H as <-; reflexivity|destruct e; discriminate]. Qed.
Lemma lift_not_panic r : lift r <> TPanic.
Proof. destruct r as [o'|e]; [discriminate|destruct e; discriminate]. Qed.
Lemma lift_not_parse r : lift r <> TParseErr.
Proof. destruct r as [o'|e]; [discriminate|destruct e; discriminate]. Qed.

Section Agree.
  Variable back : fval -> N.

  (* the routes that hand the parsed root to T::deserialize: one composition of the same two calls, four times *)
  Theorem direct_routes_same tg s :
    toml_from_str back tg s = edit_from_str back tg s /\ route_im back tg s = edit_from_str back tg s
    /\ route_fromstr back tg s = edit_from_str back tg s.
  Proof.
    unfold toml_from_str, edit_from_str, route_im, route_fromstr, edit_deserializer_parse, edit_from_document_im, im_parse.
    destruct (parse_document s); auto.
  Qed.

  (* the bytes entry point: the UTF-8 gate, then the string entry point *)
  Theorem slice_route tg bs :
    (utf8_valid_b bs = true -> edit_from_slice back tg bs = edit_from_str back tg bs)
    /\ (utf8_valid_b bs = false -> edit_from_slice back tg bs = TUtf8Err).
  Proof. unfold edit_from_slice. destruct (utf8_valid_b bs); split; intro; congruence. Qed.

  (* DocumentMut: into_mut never fails on the document of a &str, and the deserializer walks the same tree *)
  Theorem mut_route tg s : utf8_valid_b s = true -> route_mut back tg s = edit_from_str back tg s.
  Proof.
    intro Hu. unfold route_mut, edit_from_str, edit_deserializer_parse, im_parse. destruct (parse_document s) as [d|e a|m] eqn:Hp; try reflexivity.
    destruct (despan_total s d Hu Hp) as (r & t & Er & _). unfold into_mut. rewrite Er. unfold edit_from_document_mut. f_equal.
    pose proof (into_mut_walk back s d r Er) as Ew. unfold deserialize. rewrite Ew. reflexivity.
  Qed.

  (* the two routes through toml::Value / toml::Table: the text is read as `tg` (by the same two calls once more),
     then try_into *)
  Definition through (tg : target) (t : ty) (s : bytes) : tres :=
    match edit_from_str back tg s with TOk (OToml y) => try_into t y | TOk (OVal _) => TDeErr | r => r end.
  Lemma route_tval_through t s : route_tval back t s = through ToValue t s.
  Proof. unfold route_tval, value_from_str, through. rewrite (proj1 (direct_routes_same ToValue s)). reflexivity. Qed.
  Lemma route_ttab_through t s : route_ttab back t s = through ToTable t s.
  Proof. unfold route_ttab, table_from_str, through. rewrite (proj1 (direct_routes_same ToTable s)). reflexivity. Qed.

  Lemma through_not_panic tg t s : edit_from_str back tg s <> TPanic -> through tg t s <> TPanic.
  Proof.
    unfold through. destruct (edit_from_str back tg s) as [[v|y]| | | | |]; try discriminate; [|congruence].
    intros _. apply lift_not_panic.
  Qed.

  Lemma through_parse_error tg t s : through tg t s = TParseErr <-> edit_from_str back tg s = TParseErr.
  Proof.
    unfold through. destruct (edit_from_str back tg s) as [[v|y]| | | | |]; try tauto; try (split; discriminate).
    split; [intro H; exfalso; exact (lift_not_parse _ H)|discriminate].
  Qed.

  Theorem no_route_panics r t s : utf8_valid_b s = true -> run_route back r t s <> TPanic.
  Proof.
    intro Hu. assert (He : forall tg, edit_from_str back tg s <> TPanic).
    { intro tg. unfold edit_from_str, edit_deserializer_parse, im_parse. destruct (parse_document s) as [d|e a|m] eqn:Hp.
      - apply lift_not_panic.
      - discriminate.
      - exfalso. exact (proj1 (entry_points_total s m) Hp). }
    destruct r; cbn [run_route].
    - rewrite (proj1 (direct_routes_same (ToTy t) s)). apply He.
    - apply He.
    - rewrite (proj1 (slice_route (ToTy t) s) Hu). apply He.
    - rewrite (mut_route (ToTy t) s Hu). apply He.
    - rewrite (proj1 (proj2 (direct_routes_same (ToTy t) s))). apply He.
    - rewrite (proj2 (proj2 (direct_routes_same (ToTy t) s))). apply He.
    - rewrite route_tval_through. apply through_not_panic, He.
    - rewrite route_ttab_through. apply through_not_panic, He.
  Qed.

  (* all direct routes give the same answer on a &str *)
  Theorem direct_routes_agree r t s : utf8_valid_b s = true -> direct_route r = true ->
    run_route back r t s = edit_from_str back (ToTy t) s.
  Proof.
    intros Hu Hr. destruct r; try discriminate; cbn [run_route].
    - apply (proj1 (direct_routes_same (ToTy t) s)).
    - reflexivity.
    - apply (proj1 (slice_route (ToTy t) s) Hu).
    - apply (mut_route (ToTy t) s Hu).
    - apply (proj1 (proj2 (direct_routes_same (ToTy t) s))).
    - apply (proj2 (proj2 (direct_routes_same (ToTy t) s))).
  Qed.

  (* what a route returns in terms of the parsed document *)
  Lemma edit_from_str_ok tg s o : edit_from_str back tg s = TOk o ->
    exists d, parse_document s = POk d /\ deserialize back tg (doc_root d) = Ok o.
  Proof.
    unfold edit_from_str, edit_deserializer_parse, im_parse. destruct (parse_document s) as [d|e a|m]; try discriminate.
    intro H. exists d. split; [reflexivity|]. apply lift_ok, H.
  Qed.

  Lemma through_ok tg t s v : through tg t s = TOk (OVal v) ->
    exists d y, parse_document s = POk d /\ deserialize back tg (doc_root d) = Ok (OToml y) /\ tv_de t y = Ok v.
  Proof.
    unfold through. destruct (edit_from_str back tg s) as [[v0|y]| | | | |] eqn:E; try discriminate. intro H.
    destruct (edit_from_str_ok _ _ _ E) as (d & Hp & Hd). exists d, y. split; [exact Hp|]. split; [exact Hd|].
    unfold try_into in H. apply lift_ok in H. destruct (tv_de t y); [injection H as <-; reflexivity|discriminate].
  Qed.

  (* every route is `decode` (Model/SerdeRoutes.v) on the tree the deserializer walks *)
  Definition tree_route (r : text_route) : dec_route :=
    match r with Tt => R_t | Te => R_e | Tesl => R_esl | Tedoc => R_edoc | Teim => R_eim | Tefs => R_efs | Ttval => R_tval | Tttab => R_ttab end.

  Theorem route_is_decode r t s v : utf8_valid_b s = true -> run_route back r t s = TOk (OVal v) ->
    exists d, parse_document s = POk d /\ decode (tree_route r) t (walk back (doc_root d)) = Ok v.
  Proof.
    intros Hu H. destruct (direct_route r) eqn:Hr.
    - rewrite (direct_routes_agree r t s Hu Hr) in H. destruct (edit_from_str_ok _ _ _ H) as (d & Hp & Hd). exists d. split; [exact Hp|].
      cbn [deserialize] in Hd. destruct (de_value t (walk back (doc_root d))) as [v0|] eqn:E; [|discriminate]. injection Hd as <-.
      destruct r; try discriminate; exact E.
    - destruct r; try discriminate; cbn [run_route] in H.
      + rewrite route_tval_through in H. destruct (through_ok _ t s v H) as (d & y & Hp & Hd & Ev). exists d. split; [exact Hp|].
        cbn [tree_route decode deserialize] in *. destruct (to_toml_value (walk back (doc_root d))); [|discriminate]. injection Hd as <-. exact Ev.
      + rewrite route_ttab_through in H. destruct (through_ok _ t s v H) as (d & y & Hp & Hd & Ev). exists d. split; [exact Hp|].
        cbn [tree_route decode deserialize] in *. destruct (to_toml_table (walk back (doc_root d))); [|discriminate]. injection Hd as <-. exact Ev.
  Qed.

  (* any two routes that succeed return equal values *)
  Theorem text_routes_agree r1 r2 t s v1 v2 :
    utf8_valid_b s = true -> twin_ty t = true ->
    (r1 = Tttab \/ r2 = Tttab -> forall d, parse_document s = POk d -> root_first_private d = false) ->
    run_route back r1 t s = TOk (OVal v1) -> run_route back r2 t s = TOk (OVal v2) -> sval_eq v1 v2 \/ sval_eq v2 v1.
  Proof.
    intros Hu Htw Hpl H1 H2. destruct (route_is_decode r1 t s v1 Hu H1) as (d & Hp & D1). destruct (route_is_decode r2 t s v2 Hu H2) as (d' & Hp' & D2).
    rewrite Hp in Hp'. injection Hp' as <-. apply (decode_routes_agree t (walk back (doc_root d)) (tree_route r1) (tree_route r2) v1 v2 Htw); [|exact D1|exact D2].
    intro Hr. apply (parsed_root_plain back s d Hp). apply (Hpl); [|exact Hp].
    destruct Hr as [Hr | Hr]; [left; destruct r1; try discriminate; reflexivity|right; destruct r2; try discriminate; reflexivity].
  Qed.

  (* the parser's verdict is the verdict of every route *)
  Theorem route_parse_error r t s : utf8_valid_b s = true ->
    (run_route back r t s = TParseErr <-> exists e a, parse_document s = PErr e a).
  Proof.
    intro Hu. assert (He : forall tg, edit_from_str back tg s = TParseErr <-> exists e a, parse_document s = PErr e a).
    { intro tg. unfold edit_from_str, edit_deserializer_parse, im_parse. destruct (parse_document s) as [d|e a|m].
      - split; [intro H; exfalso; exact (lift_not_parse _ H)|intros (e & a & H); discriminate].
      - split; [eauto|reflexivity].
      - split; [discriminate|intros (e & a & H); discriminate]. }
    destruct (direct_route r) eqn:Hr; [rewrite (direct_routes_agree r t s Hu Hr); apply He|].
    destruct r; try discriminate; cbn [run_route].
    - rewrite route_tval_through, through_parse_error. apply He.
    - rewrite route_ttab_through, through_parse_error. apply He.
  Qed.
End Agree.

(* (b) on the text a serializer writes, the direct routes return the value *)
From TV Require Import Gen.Consts Proofs.SerDocDe Proofs.SerDocTop.

(* the text of a text route (None: the serializer returned an error) *)
Definition ser_text_bytes (fd : N -> fval) (r : troute) (t : ty) (v : sval) : option bytes :=
  match ser_doc fd r t v with Some T => Some (display_document (render_tbl float_text T) REmpty) | None => None end.

Theorem serialized_direct fd back : float_oracle fd back -> forall r0 ty v out,
  has_type v ty -> utf8_ty ty = true -> utf8_sv v = true ->
  ser_text r0 ty v = SerdeData.Ok out -> tv_depth out <= LIMIT ->
  exists text d v',
    ser_text_bytes fd r0 ty v = Some text /\ parse_document text = POk d /\ sval_eq v v'
    /\ tv_equiv out (walk back (doc_root d))
    /\ (forall r, r = Tt \/ r = Te \/ r = Teim \/ r = Tefs -> run_route back r ty text = TOk (OVal v'))
    /\ (utf8_valid_b text = true -> forall r, direct_route r = true -> run_route back r ty text = TOk (OVal v')).
Proof.
  intros Ho r0 ty v out Hty Ht Hu Hser Hd.
  destruct (text_roundtrip fd back Ho r0 ty v out Hty Ht Hu Hser Hd) as (T & d & v' & H1 & _ & H3 & _ & H5 & H6 & H7).
  exists (display_document (render_tbl float_text T) REmpty), d, v'. unfold ser_text_bytes. rewrite H1.
  split; [reflexivity|]. split; [exact H3|]. split; [exact H7|]. split; [exact H5|].
  assert (He : edit_from_str back (ToTy ty) (display_document (render_tbl float_text T) REmpty) = TOk (OVal v')).
  { unfold edit_from_str, edit_deserializer_parse, im_parse. rewrite H3. cbn [deserialize]. unfold de_doc in H6. unfold walk. rewrite H6. reflexivity. }
  split.
  - intros r [-> | [-> | [-> | ->]]]; cbn [run_route].
    + rewrite (proj1 (direct_routes_same back (ToTy ty) _)). exact He.
    + exact He.
    + rewrite (proj1 (proj2 (direct_routes_same back (ToTy ty) _))). exact He.
    + rewrite (proj2 (proj2 (direct_routes_same back (ToTy ty) _))). exact He.
  - intros Hv r Hr. rewrite (direct_routes_agree back r ty _ Hv Hr). exact He.
Qed.
