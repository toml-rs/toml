(* Proofs/BuiltRTDocEncode.v — C06, documents, printer side: Display for DocumentMut (Model/Encode.v:
   nested_tables, the position sort, visit_table) on a constructed tree prints the lines of
   Proofs/BuiltRTDocParse.v: for every table in preorder its header (a blank line before every header
   but the first thing printed), then its key/value lines. *)
From TV Require Import Proofs.EncodeHeader.
From TV Require Import Base.Prelude Base.Utf8 Base.Winnow Gen.Consts.
From TV Require Import Model.Datetime Model.Numbers Model.Tree Model.Parse Model.Document Model.Write Model.Encode Model.Build.
From TV Require Import Proofs.BuiltRTEncode Proofs.BuiltRTParse Proofs.BuiltRTValue Proofs.BuiltRTDocParse.
From TV Require Import Proofs.ModelFacts.
Require Import Lia ZifyBool ZifyN ZifyNat.
From TV Require Import Base.ListFacts.

(* ---- visit_nested_tables without fuel ---------------------------------------------------------------------- *)
Fixpoint tbl_tables (t : tbl) (path : list key) (is_array : bool) {struct t} : list (tbl * list key * bool) :=
  match t with
  | Tbl items _ _ dotted _ _ =>
    (if dotted then [] else [(t, path, is_array)])
    ++ flat_map (fun kv => match snd kv with
                           | ITable sub => tbl_tables sub (path ++ [fst kv]) false
                           | IAot ts _ => flat_map (fun sub => tbl_tables sub (path ++ [fst kv]) true) ts
                           | _ => []
                           end) items
  end.

Lemma tbl_size_items items d im dt p sp :
  tbl_size (Tbl items d im dt p sp) = S (fold_right (fun kv acc => match kv with (_, i0) => item_size i0 + acc end) 0 items).
Proof. reflexivity. Qed.
Lemma item_size_table t : item_size (ITable t) = S (tbl_size t). Proof. reflexivity. Qed.
Lemma item_size_aot ts sp : item_size (IAot ts sp) = S (fold_right (fun t acc => tbl_size t + acc) 0 ts). Proof. reflexivity. Qed.

Lemma nested_tables_eq : forall fuel t path a, tbl_size t < fuel -> nested_tables fuel t path a = tbl_tables t path a.
Proof.
  induction fuel as [|f IH]; intros t path a Hf; [lia|].
  destruct t as [items d im dt p sp]. cbn [nested_tables tbl_tables t_dotted t_items]. f_equal.
  rewrite tbl_size_items in Hf.
  apply flat_map_ext_in. intros kv Hkv. pose proof (kv_size_in items kv Hkv) as Hle.
  destruct (snd kv) as [|v|sub|ts sp0] eqn:Es; [reflexivity|reflexivity| |].
  - rewrite item_size_table in Hle. apply IH. lia.
  - rewrite item_size_aot in Hle. apply flat_map_ext_in. intros sub Hsub.
    pose proof (tbl_size_in ts sub Hsub). apply IH. lia.
Qed.

(* ---- the position sort is the identity on constructed trees (every table has no position, the root 0) ------- *)
Definition pos_ok (x : tbl * list key * bool) : Prop :=
  t_position (fst (fst x)) = None \/ t_position (fst (fst x)) = Some 0%N.

Lemma assign_positions_zero l : Forall pos_ok l -> assign_positions 0 l = map (fun x => (0%N, x)) l.
Proof.
  induction 1 as [|[[t p] a] l Hx _ IH]; [reflexivity|]. cbn [assign_positions map].
  assert (E : match t_position t with Some q => q | None => 0%N end = 0%N).
  { destruct Hx as [H | H]; cbn [fst] in H; rewrite H; reflexivity. }
  rewrite E, IH. reflexivity.
Qed.

Lemma insert_sorted_zero {A} (x : N * A) acc :
  fst x = 0%N -> Forall (fun y => fst y = 0%N) acc -> insert_sorted x acc = acc ++ [x].
Proof.
  intros Hx Hacc. induction Hacc as [|y acc Hy _ IH]; [reflexivity|]. cbn [insert_sorted app].
  rewrite Hx, Hy. change (0 <? 0)%N with false. cbv iota. rewrite IH. reflexivity.
Qed.

Lemma stable_sort_zero {A} (l : list (N * A)) : Forall (fun y => fst y = 0%N) l -> stable_sort l = l.
Proof.
  intro H. unfold stable_sort.
  assert (G : forall acc, Forall (fun y => fst y = 0%N) acc -> fold_left (fun acc x => insert_sorted x acc) l acc = acc ++ l).
  { induction H as [|x l Hx _ IH]; intros acc Hacc; [rewrite app_nil_r; reflexivity|].
    cbn [fold_left]. rewrite (insert_sorted_zero x acc Hx Hacc). rewrite IH.
    - rewrite <- app_assoc. reflexivity.
    - apply Forall_app. split; [exact Hacc|constructor; [exact Hx|constructor]]. }
  apply (G [] (Forall_nil _)).
Qed.

(* ---- rendering the floats commutes with listing the tables ------------------------------------------------------ *)
Section Render.
  Variable ftext : fval -> bytes.
  Definition r3 (x : tbl * list key * bool) : tbl * list key * bool := (render_tbl ftext (fst (fst x)), snd (fst x), snd x).

  Lemma render_tbl_eq items d im dt p sp :
    render_tbl ftext (Tbl items d im dt p sp)
    = Tbl (map (fun kv => match kv with (k, i0) => (k, render_item ftext i0) end) items) d im dt p sp.
  Proof. reflexivity. Qed.
  Lemma render_item_table t : render_item ftext (ITable t) = ITable (render_tbl ftext t). Proof. reflexivity. Qed.
  Lemma render_item_aot ts sp : render_item ftext (IAot ts sp) = IAot (map (render_tbl ftext) ts) sp. Proof. reflexivity. Qed.

  Lemma tbl_tables_render : forall t p a, tbl_tables (render_tbl ftext t) p a = map r3 (tbl_tables t p a).
  Proof.
    fix IH 1. intros [items d im dt pos sp] p a. rewrite render_tbl_eq. cbn [tbl_tables]. rewrite map_app. f_equal.
    - destruct dt; reflexivity.
    - induction items as [|[k i0] items IHi]; [reflexivity|]. cbn [map flat_map fst snd]. rewrite map_app, <- IHi. f_equal.
      destruct i0 as [|v|sub|ts sp0]; [reflexivity|reflexivity| |].
      + rewrite render_item_table. apply IH.
      + rewrite render_item_aot. induction ts as [|t0 ts IHt]; [reflexivity|]. cbn [map flat_map]. rewrite map_app, <- IHt. f_equal. apply IH.
  Qed.
End Render.

(* ---- visit_table on one constructed table ------------------------------------------------------------------------ *)
Section Visit.
  Variable ftext : fval -> bytes.
  Variable PS : scalar -> Prop.
  Variable PK : bytes -> Prop.

  Definition val_lines (l : list (bytes * item)) : list dline :=
    flat_map (fun kv => match snd kv with IValue v => [LKeyVal (fst kv) v] | _ => [] end) l.

  (* the entries of one table, looked at without descending *)
  Definition entries_flat (l : list (bytes * item)) : Prop :=
    forall k it, In (k, it) l ->
      match it with
      | IValue v => BuiltValue PS PK v
      | ITable sub => t_dotted sub = false
      | IAot _ _ => True
      | INone => False
      end.

  Definition the_tbl (im : bool) (l : list (bytes * item)) (pos : option N) : tbl :=
    Tbl (mk_tbl_items l) decor_default im false pos None.

  Lemma table_values_flat fuel im l pos : entries_flat l ->
    table_values (S fuel) [] (t_items (render_tbl ftext (the_tbl im l pos)))
    = flat_map (fun kv => match snd kv with IValue v => [([key_new (fst kv)], render_value ftext v)] | _ => [] end) l.
  Proof.
    intro Hf. unfold the_tbl. rewrite render_tbl_eq. cbn [t_items table_values]. unfold mk_tbl_items. rewrite map_map.
    induction l as [|[k it] l IH]; [reflexivity|]. cbn [map flat_map fst snd].
    rewrite IH by (intros k' it' H'; apply (Hf k' it'); right; exact H'). f_equal.
    pose proof (Hf k it (or_introl eq_refl)) as Hit.
    destruct it as [|v|sub|ts sp0]; [contradiction| | |reflexivity].
    - rewrite render_item_value. pose proof (built_not_dotted ftext PS PK v Hit) as Hnd.
      destruct (render_value ftext v) as [s r d|vals tr c d sp1|items pre im0 dt d sp1]; try reflexivity.
      destruct dt; [contradiction|reflexivity].
    - rewrite render_item_table. destruct sub as [si sd sim sdt sp1 ss]. cbn [t_dotted] in Hit. subst sdt.
      rewrite render_tbl_eq. reflexivity.
  Qed.

  (* is the header of the table written?  always for an array element; for a table unless it is marked
     implicit and has no key/value line (encode.rs visit_table: is_visible_std_table) *)
  Definition shown (a im : bool) (l : list (bytes * item)) : bool :=
    a || negb (im && match val_lines l with [] => true | _ => false end).
  Definition table_lines (P : list bytes) (a im first : bool) (l : list (bytes * item)) : list dline :=
    (match P with
     | [] => []
     | _ => if shown a im l then (if first then [] else [LBlank]) ++ [LHeader a P] else []
     end) ++ val_lines l.
  Definition table_first (P : list bytes) (a im first : bool) (l : list (bytes * item)) : bool :=
    match P with
    | [] => (match val_lines l with [] => first | _ => false end)
    | _ => if shown a im l then false else first
    end.

  Lemma lines_txt_app a b : lines_txt ftext (a ++ b) = lines_txt ftext a ++ lines_txt ftext b.
  Proof. unfold lines_txt. rewrite map_app, concat_app. reflexivity. Qed.

  Lemma body_lines_txt l : entries_flat l ->
    flat_map (fun '(kp, v) => encode_key_path kp DEFAULT_KEY_DECOR ++ [x3d]
                              ++ encode_value (S (value_size v)) v DEFAULT_VALUE_DECOR ++ [x0a])
             (flat_map (fun kv => match snd kv with IValue v => [([key_new (fst kv)], render_value ftext v)] | _ => [] end) l)
    = lines_txt ftext (val_lines l).
  Proof.
    intro Hf. unfold val_lines. induction l as [|[k it] l IH]; [reflexivity|]. cbn [flat_map fst snd].
    rewrite flat_map_app, lines_txt_app, IH by (intros k' it' H'; apply (Hf k' it'); right; exact H'). f_equal.
    pose proof (Hf k it (or_introl eq_refl)) as Hit.
    destruct it as [|v|sub|ts sp0]; [contradiction| |reflexivity|reflexivity].
    cbn [flat_map app]. unfold lines_txt. cbn [map concat line_txt]. rewrite !app_nil_r.
    rewrite (encode_value_txt ftext PS PK v Hit) by (rewrite (value_size_render ftext PS PK v Hit); lia).
    rewrite <- ?app_assoc. reflexivity.
  Qed.

  Lemma children_nil l :
    (flat_map (fun kv => match snd kv with IValue v => [([key_new (fst kv)], render_value ftext v)] | _ => [] end) l = [])
    <-> val_lines l = [].
  Proof.
    unfold val_lines. induction l as [|[k it] l IH]; [tauto|]. cbn [flat_map fst snd].
    destruct it; cbn [app]; try exact IH. split; discriminate.
  Qed.

  Lemma visit_table_flat P a im first l pos : entries_flat l ->
    visit_table (render_tbl ftext (the_tbl im l pos)) (map key_new P) a first
    = (lines_txt ftext (table_lines P a im first l), table_first P a im first l).
  Proof.
    intro Hf. unfold visit_table.
    rewrite (table_values_flat _ im l pos Hf).
    set (children := flat_map (fun kv => match snd kv with IValue v => [([key_new (fst kv)], render_value ftext v)] | _ => [] end) l).
    assert (Hnil := children_nil l). fold children in Hnil.
    rewrite (body_lines_txt l Hf : flat_map _ children = _).
    unfold table_lines, table_first. rewrite lines_txt_app.
    destruct P as [|k0 P'].
    - cbn [map]. destruct children as [|c cs].
      + rewrite (proj1 Hnil eq_refl). reflexivity.
      + destruct (val_lines l) as [|x xs] eqn:Ev; [destruct Hnil as [_ Hn]; discriminate (Hn eq_refl)|]. reflexivity.
    - assert (Ep : exists k1 tl, map key_new (k0 :: P') = k1 :: tl) by (cbn [map]; eauto).
      destruct Ep as (k1 & tl & Ep). rewrite Ep.
      assert (Eim : t_implicit (render_tbl ftext (the_tbl im l pos)) = im) by reflexivity. rewrite Eim.
      assert (Enc : match children with [] => true | _ => false end = match val_lines l with [] => true | _ => false end).
      { destruct children as [|c cs].
        - rewrite (proj1 Hnil eq_refl). reflexivity.
        - destruct (val_lines l) as [|x xs] eqn:Ev; [destruct Hnil as [_ Hn]; discriminate (Hn eq_refl)|reflexivity]. }
      rewrite Enc. rewrite <- Ep. clear Ep Enc.
      (* keys made by Key::new have no decor: the header is printed as encode_key_path prints it *)
      assert (Hb : leaf_blank (map key_new (k0 :: P')) = true).
      { apply leaf_blank_default. intros k Hk. apply in_map_iff in Hk as (x & <- & _). reflexivity. }
      destruct (header_blank (map key_new (k0 :: P')) DEFAULT_KEY_PATH_DECOR Hb) as [Hh Hc]. rewrite Hh, Hc. clear Hb Hh Hc.
      assert (Edec : t_decor (render_tbl ftext (the_tbl im l pos)) = decor_default) by reflexivity. rewrite Edec.
      unfold decor_prefix, decor_suffix, shown. cbn [d_prefix d_suffix decor_default].
      destruct a; cbn [orb].
      + destruct first; cbn [fst snd DEFAULT_TABLE_DECOR]; unfold lines_txt; cbn [map concat line_txt app];
          unfold path_txt; rewrite ?app_nil_r, <- ?app_assoc; reflexivity.
      + destruct (negb (im && match val_lines l with [] => true | _ => false end)); [|reflexivity].
        destruct first; cbn [fst snd DEFAULT_TABLE_DECOR]; unfold lines_txt; cbn [map concat line_txt app];
          unfold path_txt; rewrite ?app_nil_r, <- ?app_assoc; reflexivity.
  Qed.
End Visit.

(* ---- induction over constructed items / tables -------------------------------------------------------------------- *)
Lemma Built_strong (PS : scalar -> Prop) (PK : bytes -> Prop)
      (Pi : item -> Prop) (Pe : list (bytes * item) -> Prop) :
  (forall v, BuiltValue PS PK v -> Pi (IValue v)) ->
  (forall im l, BuiltEntries PS PK l -> (im = true -> existsb (fun kv => item_prints (snd kv)) l = true) -> Pe l ->
                Pi (ITable (Tbl (mk_tbl_items l) decor_default im false None None))) ->
  (forall ls, Forall (fun x => BuiltEntries PS PK (snd x)) ls -> Forall (fun x => Pe (snd x)) ls ->
              Pi (IAot (map (fun x => Tbl (mk_tbl_items (snd x)) decor_default (fst x) false None None) ls) None)) ->
  (forall l, NoDup (map fst l) -> Forall PK (map fst l) -> Forall (BuiltItem PS PK) (map snd l) -> Forall Pi (map snd l) -> Pe l) ->
  (forall it, BuiltItem PS PK it -> Pi it) /\ (forall l, BuiltEntries PS PK l -> Pe l).
Proof.
  intros Hv Ht Ha He.
  assert (G : forall it, BuiltItem PS PK it -> Pi it).
  { fix IHi 2. intros it Hit. destruct Hit as [v Hb | im l Hl Hp | ls Hls].
    - apply Hv, Hb.
    - apply Ht; [exact Hl|exact Hp|]. destruct Hl as [l Hnd Hk Hitems]. apply He; try assumption.
      induction Hitems as [|x xs Hx _ IHxs]; constructor; [apply IHi, Hx|exact IHxs].
    - apply Ha; [exact Hls|]. induction Hls as [|l ls Hl _ IHls]; constructor; [|exact IHls].
      destruct Hl as [l0 Hnd Hk Hitems]. apply He; try assumption.
      induction Hitems as [|x xs Hx _ IHxs]; constructor; [apply IHi, Hx|exact IHxs]. }
  split; [exact G|]. intros l [l' Hnd Hk Hitems]. apply He; try assumption.
  rewrite Forall_forall in *. intros it Hin. apply G, Hitems, Hin.
Qed.
