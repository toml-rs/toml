(* Proofs/FrontEndsReady.v — C01 / C02, the serde front ends: the value tree of a parsed document
   (Model/FrontEnds.v tree_of_doc: Extract/SpannedTree.v st_tbl, spans stripped) IS the data of the document
   (Proofs/GrammarBase.v abs_doc) written as a toml value, and it is `tree_ready`: the keys of every table are
   distinct and its date-times are in range.

   Facts about parsed documents used: no Item::None and unique keys in every table (the invariant of the
   state-machine simulation, Proofs/DefsEquivSim.v Inv); every value stored in the tree denotes the data of
   a `val` of the grammar and holds values only (Proofs/PrintBackDItems.v val_fact, carried by the loop
   invariant of Proofs/PrintBackDDoc.v); date-time tokens are in range (Proofs/LexEquivDatetime.v). *)
From TV Require Import Base.Prelude Base.Utf8 Base.Winnow.
From TV Require Import Model.Tree Model.Document.
From TV Require Import Spec.DatetimeSpec Spec.SerdeData Model.SerdeSpanned Extract.SpannedTree Model.FrontEnds.
From TV Require Import Spec.Defs Spec.Syntax.

From TV Require Import Proofs.DefsEquivBase Proofs.DefsEquivSpec Proofs.DefsEquivKv Proofs.DefsEquivSim Proofs.DefsEquivMain.
From TV Require Import Proofs.LexEquivBase Proofs.LexEquivDatetime Proofs.GrammarBase
                       Proofs.GrammarValueBase Proofs.GrammarDoc.
From TV Require Import Proofs.SpansDefs Proofs.PrintBackDAll Proofs.PrintBackDItems Proofs.PrintBackDTop.
From TV Require Proofs.FrontEnds Proofs.GrammarTop.
From TV Require Import Proofs.DocumentOps.
Require Import Lia Sorting.Permutation.

(* ================================================================================================================== *)
(* what every parsed document satisfies                                                                               *)
(* ================================================================================================================== *)
Definition pl_fact (x : pitem) : Prop := match x with PL _ v => val_fact v | PH _ _ _ _ => True end.

Lemma parse_document_swf s d : parse_document s = POk d ->
  mok_tbl (doc_root d) = true /\ swf_tree (abs_tbl (doc_root d)) = true.
Proof.
  intro H. destruct (parse_document_inv s d H) as (o & i1 & stw & i2 & stl & i3 & st' & Eb & Ew & El & Rend & Ef & ->).
  apply parse_ws_inv in Ew as (w0 & sp & Hw0 & Sw & _ & ->).
  assert (D2 : depth i2 = 0).
  { rewrite (splits_depth _ _ _ Sw).
    apply opt_inv in Eb as [(x & -> & Eb) | (-> & -> & _)]; [|reflexivity].
    apply lit_inv in Eb as [_ Sb]. rewrite (splits_depth _ _ _ Sb). reflexivity. }
  destruct (doc_loop_sound _ _ _ _ _ sstate0 El D2 (Inv_on_ws _ _ sp Inv_init)) as (t & l & [T cp] & St & Hdl & HI & _).
  destruct (finalize_sim stl T cp HI) as (root' & Ef' & Ha & Hm). rewrite Ef' in Ef. injection Ef as <-.
  cbn [doc_root finalized st_root]. split; [exact Hm|]. rewrite Ha.
  destruct HI as (_ & _ & _ & _ & _ & HsT & _). exact HsT.
Qed.

Theorem parse_document_facts s d : parse_document s = POk d ->
  mok_tbl (doc_root d) = true /\ swf_tree (abs_tbl (doc_root d)) = true
  /\ Forall pl_fact (ALLI (t_items (doc_root d))).
Proof.
  intro Hp. destruct (parse_document_swf s d Hp) as [Hm Hs]. split; [exact Hm|]. split; [exact Hs|].
  destruct (doc_items s d Hp) as (w & t & l & o & items & _ & _ & _ & _ & _ & _ & _ & _ & Hperm & _ & _ & Hcj).
  apply Forall_forall. intros x Hx. apply (Permutation_in _ Hperm) in Hx. apply in_map_iff in Hx as ([x0 txt] & <- & Hit).
  rewrite Forall_forall in Hcj. specialize (Hcj _ Hit). cbn [fst]. destruct x0 as [st q a dd|k v]; [exact I|].
  cbn [sitem_cj] in Hcj. exact (proj1 Hcj).
Qed.

(* ================================================================================================================== *)
(* data as a toml value                                                                                               *)
(* ================================================================================================================== *)
(* None: a float inside (floats are symbolic decimals in the parser model; tomlval's floats are binary64 bit patterns) *)
Fixpoint tv_dval (v : dval) : option tomlval :=
  match v with
  | DStr x => Some (VStr x)
  | DInt z => Some (VInt z)
  | DFloat _ => None
  | DBool b => Some (VBool b)
  | DDate d => Some (VDatetime d)
  | DArr l => optmap VArr (opt_all (map tv_dval l))
  | DTab items => optmap VTab (opt_all (map (fun kv => optmap (pair (fst kv)) (tv_dval (snd kv))) items))
  end.

(* the tree the statements of a document denote (Spec/Defs.v, kinds forgotten: Spec/Syntax.v tree_dval) as a toml value *)
Definition value_tree (T : Defs.stree dval) : option tomlval := tv_dval (DTab (tree_dval T)).

Fixpoint has_float (v : dval) : bool :=
  match v with
  | DFloat _ => true
  | DArr l => existsb has_float l
  | DTab items => existsb (fun kv => has_float (snd kv)) items
  | _ => false
  end.

(* induction on data *)
Section DvalInd.
  Variable P : dval -> Prop.
  Hypothesis Hs : forall x, P (DStr x).
  Hypothesis Hi : forall z, P (DInt z).
  Hypothesis Hf : forall f, P (DFloat f).
  Hypothesis Hb : forall b, P (DBool b).
  Hypothesis Hd : forall d, P (DDate d).
  Hypothesis Ha : forall l, Forall P l -> P (DArr l).
  Hypothesis Ht : forall items, Forall (fun kv => P (snd kv)) items -> P (DTab items).
  Fixpoint dval_ind2 (v : dval) : P v :=
    match v with
    | DStr x => Hs x | DInt z => Hi z | DFloat f => Hf f | DBool b => Hb b | DDate d => Hd d
    | DArr l => Ha l ((fix go (l : list dval) : Forall P l := match l with [] => Forall_nil _ | x :: r => Forall_cons x (dval_ind2 x) (go r) end) l)
    | DTab items =>
      Ht items ((fix go (l : list (bytes * dval)) : Forall (fun kv => P (snd kv)) l :=
                   match l with [] => Forall_nil _ | kv :: r => Forall_cons kv (dval_ind2 (snd kv)) (go r) end) items)
    end.
End DvalInd.

(* ---- opt_all --------------------------------------------------------------------------------------------------- *)
Lemma opt_all_cons {A} (o : option A) l :
  opt_all (o :: l) = match o, opt_all l with Some a, Some r => Some (a :: r) | _, _ => None end.
Proof. reflexivity. Qed.

Lemma opt_all_map_optmap {A B C} (h : B -> C) (f : A -> option B) l :
  opt_all (map (fun a => optmap h (f a)) l) = optmap (map h) (opt_all (map f l)).
Proof.
  induction l as [|a l IH]; [reflexivity|]. cbn [map]. rewrite !opt_all_cons, IH.
  destruct (f a); [|reflexivity]. cbn [optmap]. destruct (opt_all (map f l)); reflexivity.
Qed.

Lemma opt_all_ext {A B} (f g : A -> option B) l : Forall (fun a => f a = g a) l -> opt_all (map f l) = opt_all (map g l).
Proof. induction 1 as [|a l H _ IH]; [reflexivity|]. cbn [map]. rewrite !opt_all_cons, H, IH. reflexivity. Qed.

Lemma opt_all_none_iff {A B} (f : A -> option B) l : opt_all (map f l) = None <-> Exists (fun a => f a = None) l.
Proof.
  induction l as [|a l IH]; [split; [discriminate|intro H; inversion H]|]. cbn [map]. rewrite opt_all_cons. split.
  - destruct (f a) eqn:E; [|intros _; left; exact E]. destruct (opt_all (map f l)); [discriminate|]. intros _. right. apply IH. reflexivity.
  - intro H. inversion H as [? ? E|? ? E]; subst; [rewrite E; reflexivity|]. apply IH in E. rewrite E. destruct (f a); reflexivity.
Qed.

Lemma optmap_optmap {A B C} (g : B -> C) (f : A -> B) o : optmap g (optmap f o) = optmap (fun a => g (f a)) o.
Proof. destruct o; reflexivity. Qed.

Lemma optmap_none {A B} (f : A -> B) o : optmap f o = None <-> o = None.
Proof. destruct o; split; intro H; try discriminate; reflexivity. Qed.

(* no value tree exactly when a float is inside *)
Theorem tv_dval_none v : tv_dval v = None <-> has_float v = true.
Proof.
  induction v as [x|z|f|b|d|l IH|items IH] using dval_ind2; cbn [tv_dval has_float]; try (split; discriminate); [split; reflexivity| |].
  - rewrite optmap_none, opt_all_none_iff, existsb_exists, Exists_exists. rewrite Forall_forall in IH.
    split; intros (x & Hx & H); exists x; (split; [exact Hx|apply (IH x Hx), H]).
  - rewrite optmap_none, opt_all_none_iff, existsb_exists, Exists_exists. rewrite Forall_forall in IH.
    split; intros (x & Hx & H); exists x; (split; [exact Hx|]); [apply (IH x Hx); apply optmap_none in H; exact H|apply optmap_none, (IH x Hx), H].
Qed.

(* ================================================================================================================== *)
(* the link: the span tree of a document, spans stripped, is its data as a toml value                                 *)
(* ================================================================================================================== *)
Definition pl_vwf (x : pitem) : Prop := match x with PL _ v => vwf v = true | PH _ _ _ _ => True end.

(* what an item contributes to the span tree *)
Definition st_item (it : item) : option SerdeSpanned.stree :=
  match it with
  | INone => None
  | IValue e => st_value e
  | ITable sub => st_tbl sub
  | IAot ts asp => optmap (SerdeSpanned.NArr asp) (opt_all (map st_tbl ts))
  end.
Definition st_entry (kv : key * item) : option (bytes * SerdeSpanned.ospan * SerdeSpanned.stree) :=
  optmap (fun x => (k_key (fst kv), key_span (fst kv), x)) (st_item (snd kv)).

Lemma st_tbl_eq t : mok_tbl t = true ->
  st_tbl t = optmap (SerdeSpanned.NTab (t_span t)) (opt_all (map st_entry (t_items t))).
Proof.
  rewrite mok_tbl_eq. destruct t as [items d im dt p sp]. cbn [t_items t_span st_tbl]. intro Hm. do 2 f_equal.
  unfold mok_items in Hm. induction items as [|[k it] tl IH]; [reflexivity|]. cbn [forallb snd] in Hm. apply andb_true_iff in Hm as [Hi Hm].
  cbn [flat_map map]. rewrite (IH Hm). unfold st_entry. cbn [fst snd].
  destruct it as [|e|sub|ts asp]; [discriminate| | |]; cbn [st_item app]; try reflexivity.
  f_equal. destruct (opt_all (map st_tbl ts)); reflexivity.
Qed.

Lemma st_inline_eq items pre im dt d sp : items_wf items = true ->
  st_value (VInline items pre im dt d sp) = optmap (SerdeSpanned.NTab sp) (opt_all (map st_entry items)).
Proof.
  cbn [st_value]. intro Hm. do 2 f_equal. unfold items_wf in Hm.
  induction items as [|[k it] tl IH]; [reflexivity|]. cbn [forallb snd] in Hm. apply andb_true_iff in Hm as [Hi Hm].
  cbn [flat_map map]. rewrite (IH Hm). unfold st_entry. cbn [fst snd]. destruct it; try discriminate. reflexivity.
Qed.

Lemma st_array_eq vals tr c d sp : forallb iwf vals = true ->
  st_value (VArray vals tr c d sp) = optmap (SerdeSpanned.NArr sp) (opt_all (map st_item vals)).
Proof.
  cbn [st_value]. intro Hm. do 2 f_equal.
  induction vals as [|it tl IH]; [reflexivity|]. cbn [forallb] in Hm. apply andb_true_iff in Hm as [Hi Hm].
  cbn [flat_map map]. rewrite (IH Hm). destruct it; try discriminate. reflexivity.
Qed.

Lemma strip_tab sp o :
  optmap strip (optmap (SerdeSpanned.NTab sp) o) = optmap VTab (optmap (map (fun e => (fst (fst e), strip (snd e)))) o).
Proof. destruct o; reflexivity. Qed.
Lemma strip_arr sp o : optmap strip (optmap (SerdeSpanned.NArr sp) o) = optmap VArr (optmap (map strip) o).
Proof. destruct o; reflexivity. Qed.

(* an entry: key and stripped item *)
Lemma strip_entries (m : list (key * item)) (g : key * item -> option tomlval) :
  Forall (fun kv => optmap strip (st_item (snd kv)) = g kv) m ->
  optmap (map (fun e : bytes * SerdeSpanned.ospan * SerdeSpanned.stree => (fst (fst e), strip (snd e)))) (opt_all (map st_entry m))
  = opt_all (map (fun kv => optmap (pair (k_key (fst kv))) (g kv)) m).
Proof.
  intro H. unfold st_entry. rewrite <- opt_all_map_optmap. apply opt_all_ext. eapply Forall_impl; [|exact H].
  intros [k it] E. cbn [fst snd] in *. rewrite <- E. destruct (st_item it); reflexivity.
Qed.

Definition Pv (v : value) : Prop := vwf v = true -> optmap strip (st_value v) = tv_dval (absv v).
Definition Pt (t : tbl) : Prop :=
  mok_tbl t = true -> Forall pl_vwf (ALLI (t_items t)) ->
  optmap strip (st_tbl t) = tv_dval (DTab (tree_dval (smap absv (abs_tbl t)))).
Definition Pi (it : item) : Prop :=
  match it with
  | INone => True
  | IValue v => Pv v
  | ITable t => Pt t
  | IAot ts _ => Forall Pt ts
  end.

(* an item of a table *)
Lemma item_link it k : Pi it -> mok_item it = true -> Forall pl_vwf (ALLit k it) ->
  optmap strip (st_item it) = tv_dval (node_dval (nmap absv (abs_item it))).
Proof.
  destruct it as [|v|t|ts asp]; intros HP Hm Ha; [discriminate| | |].
  - cbn [abs_item]. cbn [nmap node_dval st_item]. apply HP. inversion Ha; subst. assumption.
  - cbn [abs_item st_item]. rewrite nmap_tab. cbn [node_dval]. change (map (fun kn => (fst kn, node_dval (snd kn))) ?x) with (tree_dval x).
    apply HP; [exact Hm|]. cbn [ALLit] in Ha. rewrite ALL_eq in Ha. apply Forall_app in Ha as [_ Ha]. exact Ha.
  - rewrite abs_item_aot, nmap_aot. cbn [node_dval st_item tv_dval]. rewrite strip_arr. f_equal.
    rewrite <- opt_all_map_optmap, !map_map. apply opt_all_ext.
    rewrite mok_item_aot in Hm. rewrite ALLit_aot in Ha. cbn [Pi] in HP.
    induction ts as [|t ts IH]; [constructor|]. inversion HP as [|? ? H1 H2]; subst. cbn [forallb] in Hm. apply andb_true_iff in Hm as [Hm1 Hm2].
    cbn [flat_map] in Ha. apply Forall_app in Ha as [Ha1 Ha2]. constructor; [|apply IH; assumption].
    change (map (fun kn => (fst kn, node_dval (snd kn))) ?x) with (tree_dval x).
    unfold mok_elem in Hm1. apply andb_true_iff in Hm1 as [_ Hm1]. apply H1; [exact Hm1|].
    rewrite ALL_eq in Ha1. apply Forall_app in Ha1 as [_ Ha1]. exact Ha1.
Qed.

Theorem tree_link :
  (forall v, Pv v) /\ (forall it, Pi it) /\ (forall t, Pt t).
Proof.
  apply tree_ind3.
  - (* scalar *) intros x r d _. cbn [st_value absv]. destruct x; reflexivity.
  - (* array *) intros vals tr c d sp IH Hw. rewrite vwf_array in Hw. rewrite (st_array_eq vals tr c d sp Hw), absv_array, strip_arr.
    cbn [tv_dval]. f_equal. rewrite <- opt_all_map_optmap, map_map. apply opt_all_ext.
    rewrite forallb_forall in Hw. rewrite Forall_forall in IH |- *. intros it Hin. specialize (Hw it Hin). specialize (IH it Hin).
    destruct it as [|v| |]; try discriminate. cbn [st_item absi]. apply IH. exact Hw.
  - (* inline table *) intros items pre im dt d sp IH Hw. rewrite vwf_inline in Hw. rewrite (st_inline_eq items pre im dt d sp Hw), absv_inline, strip_tab.
    cbn [tv_dval]. f_equal. rewrite (strip_entries items (fun kv => tv_dval (absi (snd kv)))).
    + rewrite map_map. reflexivity.
    + unfold items_wf in Hw. rewrite forallb_forall in Hw. rewrite Forall_forall in IH |- *. intros [k it] Hin. specialize (Hw _ Hin). specialize (IH _ Hin).
      cbn [snd] in *. destruct it as [|v| |]; try discriminate. cbn [st_item absi]. apply IH. exact Hw.
  - exact I.
  - intros v H. exact H.
  - intros t H. exact H.
  - intros ts sp H. exact H.
  - (* table *) intros items d im dt p sp IH Hm Ha. rewrite (st_tbl_eq _ Hm), strip_tab. rewrite mok_tbl_eq in Hm. rewrite abs_tbl_eq. cbn [t_items t_span] in *.
    cbn [tv_dval]. f_equal. rewrite (strip_entries items (fun kv => tv_dval (node_dval (nmap absv (abs_item (snd kv)))))).
    + unfold tree_dval, smap, abs_items. rewrite !map_map. reflexivity.
    + unfold mok_items in Hm. rewrite forallb_forall in Hm. rewrite Forall_forall in IH |- *. intros [k it] Hin.
      cbn [snd]. apply (item_link it k); [apply (IH _ Hin)|apply (Hm _ Hin)|].
      unfold ALLI in Ha. rewrite Forall_forall in Ha |- *. intros x Hx. apply Ha. apply in_flat_map. exists (k, it). auto.
Qed.

Lemma pl_fact_vwf x : pl_fact x -> pl_vwf x.
Proof. destruct x as [st q a dd|k v]; [auto|]. intros (t & a & _ & _ & _ & H). exact H. Qed.

(* THE LINK: the value tree of a parsed document is the data of the document (abs_doc, Props/C02doc.v) as a toml value;
   in particular there is none exactly when the document holds a float *)
Theorem tree_of_doc_abs s d : parse_document s = POk d -> tree_of_doc d = value_tree (abs_doc d).
Proof.
  intro Hp. destruct (parse_document_facts s d Hp) as (Hm & _ & Hf). unfold tree_of_doc, value_tree, abs_doc.
  apply (proj2 (proj2 tree_link)); [exact Hm|]. eapply Forall_impl; [|exact Hf]. apply pl_fact_vwf.
Qed.

(* ================================================================================================================== *)
(* ready: distinct keys, date-times in range                                                                          *)
(* ================================================================================================================== *)
Fixpoint dready (v : dval) : bool :=
  match v with
  | DDate d => in_range d
  | DArr l => forallb dready l
  | DTab items => nodup_bytes (map fst items) && forallb (fun kv => dready (snd kv)) items
  | _ => true
  end.

Lemma opt_all_some {A B} (f : A -> option B) l r : opt_all (map f l) = Some r -> Forall2 (fun a b => f a = Some b) l r.
Proof.
  revert r. induction l as [|a l IH]; intros r H; [injection H as <-; constructor|]. cbn [map] in H. rewrite opt_all_cons in H.
  destruct (f a) eqn:E; [|discriminate]. destruct (opt_all (map f l)) eqn:E2; [|discriminate]. injection H as <-. constructor; [exact E|apply IH; reflexivity].
Qed.

Theorem tv_dval_ready v x : tv_dval v = Some x -> tree_ready x = dready v.
Proof.
  revert x. induction v as [y|z|f|b|d|l IH|items IH] using dval_ind2; intros x H; cbn [tv_dval] in H; try (injection H as <-; reflexivity); [discriminate| |].
  - destruct (opt_all (map tv_dval l)) as [r|] eqn:E; [|discriminate]. injection H as <-. cbn [tree_ready dready].
    apply opt_all_some in E. induction E as [|a b l r Hab _ IHE]; [reflexivity|]. inversion IH as [|? ? H1 H2]; subst.
    cbn [forallb]. rewrite (H1 _ Hab), (IHE H2). reflexivity.
  - destruct (opt_all _) as [r|] eqn:E; [|discriminate]. injection H as <-. cbn [tree_ready dready].
    apply opt_all_some in E. assert (Ek : map fst r = map fst items).
    { clear IH. induction E as [|a b l r Hab _ IHE]; [reflexivity|]. cbn [map]. rewrite IHE. destruct (tv_dval (snd a)); [|discriminate].
      injection Hab as <-. reflexivity. }
    rewrite Ek. f_equal. induction E as [|a b l r Hab _ IHE]; [reflexivity|]. inversion IH as [|? ? H1 H2]; subst.
    cbn [forallb]. cbn [map] in Ek. injection Ek as _ Ek. rewrite (IHE H2 Ek). f_equal.
    destruct (tv_dval (snd a)) as [y|] eqn:Ey; [|discriminate]. injection Hab as <-. cbn [snd]. apply H1. reflexivity.
Qed.

(* ---- leaves of a Spec/Defs.v tree ----------------------------------------------------------------------------- *)
Section Leaves.
  Context {V : Type}.
  Variable Q : V -> bool.
  Fixpoint nall (n : node V) : bool :=
    match n with
    | NVal v => Q v
    | NTab _ items => forallb (fun kn => nall (snd kn)) items
    | NAot es => forallb (forallb (fun kn => nall (snd kn))) es
    end.
  Definition tall (t : Defs.stree V) : bool := forallb (fun kn => nall (snd kn)) t.

  Lemma tall_sget t k n : tall t = true -> sget t k = Some n -> nall n = true.
  Proof.
    unfold tall. induction t as [|[k' n'] tl IH]; [discriminate|]. cbn [forallb sget snd]. intros H E. apply andb_true_iff in H as [H1 H2].
    destruct (bytes_eqb k' k); [injection E as <-; exact H1|apply IH; assumption].
  Qed.
  Lemma tall_spush t k n : tall t = true -> nall n = true -> tall (spush t k n) = true.
  Proof. unfold tall, spush. intros H1 H2. rewrite forallb_app, H1. cbn [forallb snd]. rewrite H2. reflexivity. Qed.
  Lemma tall_sset t k n : tall t = true -> nall n = true -> tall (sset t k n) = true.
  Proof.
    unfold tall. induction t as [|[k' n'] tl IH]; [reflexivity|]. cbn [forallb sset snd]. intros H Hn. apply andb_true_iff in H as [H1 H2].
    destruct (bytes_eqb k' k); cbn [forallb snd]; [rewrite Hn, H2; reflexivity|rewrite H1, (IH H2 Hn); reflexivity].
  Qed.

  Lemma insert_kv_tall s (v : V) p : Q v = true -> forall t t', tall t = true -> insert_kv s p v t = ROk t' -> tall t' = true.
  Proof.
    intro Hv. induction p as [|k p IH]; intros t t' Ht H; [discriminate|]. destruct p as [|k2 p''].
    - rewrite insert_kv_leaf in H. destruct (sget t k); [discriminate|]. injection H as <-. apply tall_spush; [exact Ht|exact Hv].
    - rewrite insert_kv_step in H. destruct (sget t k) as [[v0|kd c|es]|] eqn:E; try discriminate.
      + pose proof (tall_sget _ _ _ Ht E) as Hc. cbn [nall] in Hc.
        destruct kd; try discriminate.
        * destruct s; [discriminate|]. destruct p''; [discriminate|].
          destruct (insert_kv false (k2 :: b :: p'') v c) as [c'| |] eqn:E2; try discriminate. injection H as <-.
          apply tall_sset; [exact Ht|]. cbn [nall]. apply (IH c c' Hc E2).
        * destruct (insert_kv s (k2 :: p'') v c) as [c'| |] eqn:E2; try discriminate. injection H as <-.
          apply tall_sset; [exact Ht|]. cbn [nall]. apply (IH c c' Hc E2).
      + destruct (insert_kv s (k2 :: p'') v []) as [c'| |] eqn:E2; try discriminate. injection H as <-.
        apply tall_spush; [exact Ht|]. cbn [nall]. apply (IH [] c' eq_refl E2).
  Qed.

  Lemma inline_fold_facts s0 : forall (pairs : list (list bytes * V)) t t',
    forallb (fun pv => Q (snd pv)) pairs = true -> tall t = true -> swf_tree t = true ->
    (fix go (t : Defs.stree V) (pairs : list (list bytes * V)) : Defs.res (Defs.stree V) :=
       match pairs with [] => ROk t | (p, v) :: tl => match insert_kv s0 p v t with ROk t1 => go t1 tl | RInvalid => RInvalid | RUndecided => RUndecided end end) t pairs = ROk t' ->
    tall t' = true /\ swf_tree t' = true.
  Proof.
    induction pairs as [|[p v] tl IH]; intros t t' Hq Ht Hs H; [injection H as <-; auto|].
    cbn [forallb snd] in Hq. apply andb_true_iff in Hq as [Hv Hq].
    destruct (insert_kv s0 p v t) as [t1| |] eqn:E; try discriminate.
    apply (IH t1 t' Hq); [apply (insert_kv_tall s0 v p Hv t t1 Ht E)|apply (insert_kv_swf s0 v p t t1 Hs E)|exact H].
  Qed.
End Leaves.

Lemma inline_fold_ready {V} (Q : V -> bool) : forall (pairs : list (list bytes * V)) t t',
  forallb (fun pv => Q (snd pv)) pairs = true -> tall Q t = true -> swf_tree t = true ->
  inline_fold t pairs = ROk t' -> tall Q t' = true /\ swf_tree t' = true.
Proof.
  induction pairs as [|[p v] tl IH]; intros t t' Hq Ht Hs H; [injection H as <-; auto|].
  cbn [forallb snd] in Hq. apply andb_true_iff in Hq as [Hv Hq]. cbn [inline_fold] in H.
  destruct (insert_kv true p v t) as [t1| |] eqn:E; try discriminate. cbn [Defs.rbind] in H.
  apply (IH t1 t' Hq); [apply (insert_kv_tall Q true v p Hv t t1 Ht E)|apply (insert_kv_swf true v p t t1 Hs E)|exact H].
Qed.

Lemma forallb_map' {A B} (f : A -> B) (p : B -> bool) l : forallb p (map f l) = forallb (fun x => p (f x)) l.
Proof. induction l as [|a l IH]; [reflexivity|]. cbn [map forallb]. rewrite IH. reflexivity. Qed.

(* ---- unique keys ---------------------------------------------------------------------------------------------- *)
Lemma sget_mem {V} (t : Defs.stree V) k : sget t k = None -> mem_bytes k (map fst t) = false.
Proof.
  induction t as [|[k' n] tl IH]; [reflexivity|]. cbn [sget map fst mem_bytes]. rewrite (bytes_eqb_sym k k').
  destruct (bytes_eqb k' k); [discriminate|]. exact IH.
Qed.

Lemma snodup_nodup {V} (t : Defs.stree V) : snodup t = true -> nodup_bytes (map fst t) = true.
Proof.
  induction t as [|[k n] tl IH]; [reflexivity|]. cbn [snodup map fst nodup_bytes]. destruct (sget tl k) eqn:E; [discriminate|].
  intro H. rewrite (sget_mem tl k E), (IH H). reflexivity.
Qed.

(* a tree with unique keys whose leaves are ready is ready *)
Section ReadyTree.
  Context {V : Type}.
  Variable f : V -> dval.
  Let Q (v : V) : bool := dready (f v).

  Lemma tree_dval_keys (t : Defs.stree V) : map fst (tree_dval (smap f t)) = map fst t.
  Proof. unfold tree_dval, smap. rewrite !map_map. reflexivity. Qed.

  Lemma ready_items (t : Defs.stree V) :
    Forall (fun kn => swf_node (snd kn) = true -> nall Q (snd kn) = true -> dready (node_dval (nmap f (snd kn))) = true) t ->
    swf_tree t = true -> tall Q t = true -> dready (DTab (tree_dval (smap f t))) = true.
  Proof.
    intros IH Hs Ha. apply swf_split in Hs as [Hs Hn]. cbn [dready]. rewrite tree_dval_keys, (snodup_nodup t Hn). cbn [andb].
    unfold tree_dval, smap. rewrite map_map, forallb_map'. unfold tall in Ha.
    rewrite forallb_forall in Hs, Ha |- *. rewrite Forall_forall in IH. intros kn Hin. cbn [snd kmap]. apply (IH kn Hin); [apply Hs, Hin|apply Ha, Hin].
  Qed.

  Lemma ready_node (n : node V) : swf_node n = true -> nall Q n = true -> dready (node_dval (nmap f n)) = true.
  Proof.
    induction n as [v|kd items IH|es IH] using node_ind'; intros Hs Ha.
    - exact Ha.
    - rewrite swf_node_tab in Hs. cbn [nall] in Ha. rewrite nmap_tab. cbn [node_dval].
      change (map (fun kn => (fst kn, node_dval (snd kn))) ?x) with (tree_dval x). apply ready_items; assumption.
    - rewrite swf_node_aot in Hs. apply andb_true_iff in Hs as [_ Hs]. cbn [nall] in Ha. rewrite nmap_aot. cbn [node_dval dready].
      rewrite !forallb_map'. rewrite forallb_forall in Hs, Ha |- *. rewrite Forall_forall in IH. intros e Hin.
      change (map (fun kn => (fst kn, node_dval (snd kn))) ?x) with (tree_dval x). apply ready_items; [apply IH, Hin|apply Hs, Hin|apply Ha, Hin].
  Qed.

  Theorem ready_tree (t : Defs.stree V) : swf_tree t = true -> tall Q t = true -> dready (DTab (tree_dval (smap f t))) = true.
  Proof. apply ready_items. apply Forall_forall. intros kn _. apply ready_node. Qed.
End ReadyTree.

Lemma nmap_id {V} (n : node V) : nmap (fun v => v) n = n.
Proof.
  induction n as [v|kd items IH|es IH] using node_ind'; [reflexivity| |].
  - rewrite nmap_tab. f_equal. unfold smap. induction IH as [|[k n] l H _ IHl]; [reflexivity|]. cbn [map fst snd] in *. unfold kmap at 1. cbn [fst snd]. rewrite H, IHl. reflexivity.
  - rewrite nmap_aot. f_equal. induction IH as [|e l He _ IHl]; [reflexivity|]. cbn [map]. rewrite IHl. f_equal.
    unfold smap. induction He as [|[k n] l' H _ IHl']; [reflexivity|]. cbn [map fst snd] in *. unfold kmap at 1. cbn [fst snd]. rewrite H, IHl'. reflexivity.
Qed.
Lemma smap_id {V} (t : Defs.stree V) : smap (fun v => v) t = t.
Proof. unfold smap. induction t as [|[k n] tl IH]; [reflexivity|]. cbn [map]. unfold kmap at 1. cbn [fst snd]. rewrite nmap_id, IH. reflexivity. Qed.

(* ---- the data of a `val` of the grammar is ready ------------------------------------------------------------------ *)
Theorem val_tok_ready :
  (forall t a, val_tok t a -> aval_ok a = true -> dready (den a) = true)
  /\ (forall vs l, array_values_tok vs l -> forallb aval_ok l = true -> forallb dready (map den l) = true)
  /\ (forall kvs l, inline_keyvals_tok kvs l -> forallb (fun pv => aval_ok (snd pv)) l = true ->
                    forallb (fun pv => dready (den (snd pv))) l = true).
Proof.
  apply val_tok_mutind.
  - intros; reflexivity.
  - intros; reflexivity.
  - intros; reflexivity.
  - intros vs l w _ IH _ Hok. cbn [aval_ok] in Hok. cbn [den dready]. apply IH, Hok.
  - intros; reflexivity.
  - intros w1 kvs l w2 _ _ IH _ Hok. cbn [aval_ok] in Hok. apply andb_true_iff in Hok as [Hok _]. cbn [den].
    destruct (inline_run (map (fun pv => (fst pv, den (snd pv))) l)) as [t|] eqn:E; [|reflexivity].
    unfold inline_run in E. destruct (inline_fold [] (map (fun pv => (fst pv, den (snd pv))) l)) as [t0| |] eqn:E2; try discriminate. injection E as ->.
    destruct (inline_fold_ready dready (map (fun pv : list bytes * aval => (fst pv, den (snd pv))) l) [] t) as [Ha Hs]; [|reflexivity|reflexivity|exact E2|].
    + rewrite forallb_map'. cbn [snd]. apply IH, Hok.
    + rewrite <- (smap_id t). apply (ready_tree (fun v => v)); assumption.
  - intros t d H _. cbn [den dready]. apply (date_time_tok_in_range t d H).
  - intros; reflexivity.
  - intros; reflexivity.
  - intros w1 t a w2 c _ _ IH _ _ Hok. cbn [forallb map] in *. apply andb_true_iff in Hok as [Hok _]. rewrite (IH Hok). reflexivity.
  - intros w1 t a w2 u l _ _ IH _ _ IHl Hok. cbn [forallb map] in *. apply andb_true_iff in Hok as [H1 H2]. rewrite (IH H1), (IHl H2). reflexivity.
  - intros k p w1 w2 t a _ _ _ _ IH Hok. cbn [forallb snd] in *. apply andb_true_iff in Hok as [Hok _]. rewrite (IH Hok). reflexivity.
  - intros k p w1 w2 t a w3 w4 u l _ _ _ _ IH _ _ _ IHl Hok. cbn [forallb snd] in *. apply andb_true_iff in Hok as [H1 H2]. rewrite (IH H1), (IHl H2). reflexivity.
Qed.

Lemma val_fact_ready v : val_fact v -> dready (absv v) = true.
Proof. intros (t & a & Ht & Ea & Hok & _). rewrite Ea. apply (proj1 val_tok_ready t a Ht Hok). Qed.

(* ---- the leaves of the tree of a document ---------------------------------------------------------------------------- *)
Definition Lt (t : tbl) : Prop := Forall pl_fact (ALLI (t_items t)) -> tall (fun v => dready (absv v)) (abs_tbl t) = true.
Definition Li (it : item) : Prop :=
  match it with ITable t => Lt t | IAot ts _ => Forall Lt ts | _ => True end.

Theorem leaves_ready : (forall v : value, True) /\ (forall it, Li it) /\ (forall t, Lt t).
Proof.
  apply tree_ind3; try (intros; exact I).
  - intros t H. exact H.
  - intros ts sp H. exact H.
  - intros items d im dt p sp IH Ha. rewrite abs_tbl_eq. cbn [t_items] in *. unfold tall, abs_items. rewrite forallb_map'.
    apply forallb_forall. intros [k it] Hin. cbn [abs_kv snd]. rewrite Forall_forall in IH. specialize (IH _ Hin). cbn [snd] in IH.
    assert (Hit : Forall pl_fact (ALLit k it)).
    { unfold ALLI in Ha. rewrite Forall_forall in Ha |- *. intros x Hx. apply Ha. apply in_flat_map. exists (k, it). auto. }
    destruct it as [|v|t|ts asp].
    + reflexivity.
    + cbn [abs_item nall]. inversion Hit; subst. apply val_fact_ready. assumption.
    + cbn [abs_item nall]. apply IH. cbn [ALLit] in Hit. rewrite ALL_eq in Hit. apply Forall_app in Hit as [_ Hit]. exact Hit.
    + rewrite abs_item_aot. cbn [nall]. rewrite forallb_map'. rewrite ALLit_aot in Hit. cbn [Li] in IH.
      clear Hin. induction ts as [|t ts IHts]; [reflexivity|]. inversion IH as [|? ? H1 H2]; subst. cbn [flat_map] in Hit. apply Forall_app in Hit as [Hi1 Hi2].
      cbn [forallb]. rewrite (IHts H2 Hi2), andb_true_r. apply H1. rewrite ALL_eq in Hi1. apply Forall_app in Hi1 as [_ Hi1]. exact Hi1.
Qed.

(* ================================================================================================================== *)
(* the theorems                                                                                                       *)
(* ================================================================================================================== *)
(* the value tree of a parsed document is ready: distinct keys in every table, date-times in range *)
Theorem abs_doc_ready s d : parse_document s = POk d -> dready (DTab (tree_dval (abs_doc d))) = true.
Proof.
  intro Hp. destruct (parse_document_facts s d Hp) as (_ & Hs & Hf). unfold abs_doc.
  apply (ready_tree absv); [exact Hs|]. apply (proj2 (proj2 leaves_ready)), Hf.
Qed.

Theorem parse_tree_ready s d x : parse_document s = POk d -> tree_of_doc d = Some x -> tree_ready x = true.
Proof.
  intros Hp Hx. rewrite (tree_of_doc_abs s d Hp) in Hx. unfold value_tree in Hx.
  rewrite (tv_dval_ready _ x Hx). apply (abs_doc_ready s d Hp).
Qed.

(* ================================================================================================================== *)
(* the private key and floats, on the data                                                                            *)
(* ================================================================================================================== *)
Fixpoint dprivate (v : dval) : bool :=
  match v with
  | DArr l => existsb dprivate l
  | DTab items => existsb (fun kv => bytes_eqb (fst kv) DT_FIELD || dprivate (snd kv)) items
  | _ => false
  end.
(* a table key of the document spells "$__toml_private_datetime": anywhere / anywhere but directly in the root table *)
Definition doc_private (T : Defs.stree dval) : bool := dprivate (DTab (tree_dval T)).
Definition doc_private_below_root (T : Defs.stree dval) : bool := existsb (fun kv => dprivate (snd kv)) (tree_dval T).
Definition doc_has_float (T : Defs.stree dval) : bool := has_float (DTab (tree_dval T)).

Lemma existsb_F2 {A B} (p : A -> bool) (q : B -> bool) l r : Forall2 (fun a b => q b = p a) l r -> existsb q r = existsb p l.
Proof. induction 1 as [|a b l r H _ IH]; [reflexivity|]. cbn [existsb]. rewrite H, IH. reflexivity. Qed.

Theorem tv_dval_private v x : tv_dval v = Some x -> has_private_key x = dprivate v.
Proof.
  revert x. induction v as [y|z|f|b|d|l IH|items IH] using dval_ind2; intros x H; cbn [tv_dval] in H; try (injection H as <-; reflexivity); [discriminate| |].
  - destruct (opt_all (map tv_dval l)) as [r|] eqn:E; [|discriminate]. injection H as <-. cbn [has_private_key dprivate].
    apply opt_all_some in E. apply existsb_F2. induction E as [|a b l r Hab _ IHE]; [constructor|]. inversion IH as [|? ? H1 H2]; subst.
    constructor; [apply (H1 _ Hab)|apply (IHE H2)].
  - destruct (opt_all _) as [r|] eqn:E; [|discriminate]. injection H as <-. cbn [has_private_key dprivate].
    apply opt_all_some in E. apply existsb_F2. induction E as [|a b l r Hab _ IHE]; [constructor|]. inversion IH as [|? ? H1 H2]; subst.
    constructor; [|apply (IHE H2)]. destruct (tv_dval (snd a)) as [y|] eqn:Ey; [|discriminate]. injection Hab as <-. cbn [fst snd]. rewrite (H1 y eq_refl). reflexivity.
Qed.

Lemma value_tree_private T x : value_tree T = Some x ->
  has_private_key x = doc_private T /\ has_private_key_below_root x = doc_private_below_root T.
Proof.
  intro H. split; [apply (tv_dval_private _ x H)|]. unfold value_tree in H. cbn [tv_dval] in H.
  destruct (opt_all _) as [r|] eqn:E; [|discriminate]. injection H as <-. cbn [has_private_key_below_root]. unfold doc_private_below_root.
  apply opt_all_some in E. apply existsb_F2. induction E as [|a b l r Hab _ IHE]; [constructor|]. constructor; [|exact IHE].
  destruct (tv_dval (snd a)) as [y|] eqn:Ey; [|discriminate]. injection Hab as <-. cbn [snd]. apply (tv_dval_private _ y Ey).
Qed.

Lemma value_tree_none T : value_tree T = None <-> doc_has_float T = true.
Proof. apply tv_dval_none. Qed.

(* ================================================================================================================== *)
(* the front ends, without the hypothesis tree_ready                                                                  *)
(* ================================================================================================================== *)
Import Proofs.FrontEnds.

Theorem frontends_accept s d x :
  parse_document s = POk d -> tree_of_doc d = Some x ->
  (has_private_key_below_root x = false ->
     toml_from_str_table s = FOk (canon_value true x) /\ edit_from_str_table s = FOk (canon_value true x) /\
     (utf8_valid_b s = true -> from_slice_table s = FOk (canon_value true x))) /\
  (has_private_key x = false -> toml_from_str_value s = FOk (canon_value true x)).
Proof. intros Hp Hx. apply (accepted_everywhere s d x Hp Hx (parse_tree_ready s d x Hp Hx)). Qed.

Theorem frontends_classifier s d x :
  parse_document s = POk d -> tree_of_doc d = Some x ->
  (toml_from_str_table s = FDeErr -> has_private_key_below_root x = true) /\
  (toml_from_str_value s = FDeErr -> has_private_key x = true).
Proof. intros Hp Hx. apply (refusal_means_private_key s d x Hp Hx (parse_tree_ready s d x Hp Hx)). Qed.

(* in terms of the data of the document only *)
Theorem frontends_accept_data s d :
  parse_document s = POk d -> doc_has_float (abs_doc d) = false ->
  exists x, value_tree (abs_doc d) = Some x /\
    (doc_private_below_root (abs_doc d) = false ->
       toml_from_str_table s = FOk (canon_value true x) /\ edit_from_str_table s = FOk (canon_value true x) /\
       (utf8_valid_b s = true -> from_slice_table s = FOk (canon_value true x))) /\
    (doc_private (abs_doc d) = false -> toml_from_str_value s = FOk (canon_value true x)).
Proof.
  intros Hp Hf. destruct (value_tree (abs_doc d)) as [x|] eqn:E.
  - exists x. split; [reflexivity|]. pose proof (tree_of_doc_abs s d Hp) as Hx. rewrite E in Hx.
    destruct (value_tree_private _ x E) as [P1 P2]. rewrite <- P1, <- P2. apply (frontends_accept s d x Hp Hx).
  - apply value_tree_none in E. congruence.
Qed.

(* C02: toml::from_str::<Value> decodes the tree the statements denote *)
Theorem serde_value_tree s d stmts T v :
  parse_document s = POk d -> toml_text s stmts -> verdict stmts = Valid T -> toml_from_str_value s = FOk v ->
  exists x, value_tree T = Some x /\ (doc_private T = false -> v = canon_value true x).
Proof.
  intros Hp Ht Hv E. pose proof (GrammarTop.c02_tree s d stmts T Hp Ht Hv) as Ea. pose proof (tree_of_doc_abs s d Hp) as Hx. rewrite Ea in Hx.
  destruct (value_tree T) as [x|] eqn:Ex.
  - exists x. split; [reflexivity|]. intro P. destruct (value_tree_private T x Ex) as [P1 _].
    apply (serde_value s d x v Hp Hx (parse_tree_ready s d x Hp Hx)); [rewrite P1; exact P|exact E].
  - exfalso. unfold toml_from_str_value, from_str_with in E. rewrite Hp, Hx in E. discriminate.
Qed.

Theorem serde_table_tree s d stmts T v :
  parse_document s = POk d -> toml_text s stmts -> verdict stmts = Valid T -> toml_from_str_table s = FOk v ->
  exists x, value_tree T = Some x /\ (doc_private_below_root T = false -> v = canon_value true x).
Proof.
  intros Hp Ht Hv E. pose proof (GrammarTop.c02_tree s d stmts T Hp Ht Hv) as Ea. pose proof (tree_of_doc_abs s d Hp) as Hx. rewrite Ea in Hx.
  destruct (value_tree T) as [x|] eqn:Ex.
  - exists x. split; [reflexivity|]. intro P. destruct (value_tree_private T x Ex) as [_ P2].
    apply (serde_table s d x v Hp Hx (parse_tree_ready s d x Hp Hx)); [rewrite P2; exact P|exact E].
  - exfalso. unfold toml_from_str_table, from_str_with in E. rewrite Hp, Hx in E. discriminate.
Qed.
