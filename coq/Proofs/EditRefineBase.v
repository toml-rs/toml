(* Proofs/EditRefineBase.v — list facts for property C08: the positional reference functions of
   Spec/EditSpec.v (pos / firstn / skipn) against their recursive characterisations, and the
   recursive functions of Model/Tree.v / Model/Edit.v against those, through
   `absl` = the entries of a table after `abs`. *)
From TV Require Import Base.Prelude Spec.Ordered Model.Tree.
From TV Require Import Spec.EditSpec Model.Edit.

(** * A. the positional reference functions, recursively *)

Fixpoint r_upd (k : bytes) (g : plain -> plain) (l : entries) : entries :=
  match l with
  | [] => []
  | (k', v) :: tl => if bytes_eqb k' k then (k', g v) :: tl else (k', v) :: r_upd k g tl
  end.
Fixpoint r_del (k : bytes) (l : entries) : entries :=
  match l with
  | [] => []
  | (k', v) :: tl => if bytes_eqb k' k then tl else (k', v) :: r_del k tl
  end.
Fixpoint r_get (k : bytes) (l : entries) : option plain :=
  match l with
  | [] => None
  | (k', v) :: tl => if bytes_eqb k' k then Some v else r_get k tl
  end.

Lemma pos_from_shift n k l : pos_from (S n) k l = optmap S (pos_from n k l).
Proof.
  revert n. induction l as [|[k' v] l IH]; intro n; simpl; [reflexivity|].
  destruct (bytes_eqb k' k); [reflexivity|]. apply IH.
Qed.

Lemma pos_cons k k' v l :
  pos k ((k', v) :: l) = if bytes_eqb k' k then Some 0 else optmap S (pos k l).
Proof. unfold pos. simpl. destruct (bytes_eqb k' k); [reflexivity|]. apply pos_from_shift. Qed.

Lemma e_upd_rec k g l : e_upd k g l = r_upd k g l.
Proof.
  induction l as [|[k' v] l IH]; [reflexivity|].
  unfold e_upd in *. rewrite pos_cons. simpl r_upd.
  destruct (bytes_eqb k' k) eqn:E; [reflexivity|].
  rewrite <- IH. destruct (pos k l) as [i|]; reflexivity.
Qed.

Lemma e_del_rec k l : e_del k l = r_del k l.
Proof.
  induction l as [|[k' v] l IH]; [reflexivity|].
  unfold e_del in *. rewrite pos_cons. simpl r_del.
  destruct (bytes_eqb k' k) eqn:E; [reflexivity|].
  rewrite <- IH. destruct (pos k l) as [i|]; reflexivity.
Qed.

Lemma e_get_rec k l : e_get k l = r_get k l.
Proof.
  induction l as [|[k' v] l IH]; [reflexivity|].
  unfold e_get in *. rewrite pos_cons. simpl r_get.
  destruct (bytes_eqb k' k) eqn:E; [reflexivity|].
  rewrite <- IH. destruct (pos k l) as [i|]; reflexivity.
Qed.

Lemma pos_none_get k l : pos k l = None <-> r_get k l = None.
Proof.
  induction l as [|[k' v] l IH]; [simpl; tauto|].
  rewrite pos_cons. simpl. destruct (bytes_eqb k' k); [split; discriminate|].
  destruct (pos k l); simpl.
  - split; intro H; [discriminate|]. apply IH in H. discriminate.
  - split; intro H; [apply IH; reflexivity|reflexivity].
Qed.

Lemma e_put0_rec k x l :
  e_put0 k x l = match r_get k l with Some _ => r_upd k (fun _ => x) l | None => l ++ [(k, x)] end.
Proof.
  induction l as [|[k' v] l IH]; [reflexivity|].
  unfold e_put0 in *. rewrite pos_cons. simpl r_get. simpl r_upd.
  destruct (bytes_eqb k' k) eqn:E; [reflexivity|].
  destruct (pos k l) as [i|] eqn:P; simpl.
  - change (((k', v) :: firstn i l ++ map (fun kv => (fst kv, x)) (firstn 1 (skipn i l)) ++ skipn (S i) l)
            = match r_get k l with Some _ => (k', v) :: r_upd k (fun _ => x) l | None => (k', v) :: l ++ [(k, x)] end).
    rewrite IH. destruct (r_get k l); reflexivity.
  - change (((k', v) :: l ++ [(k, x)])
            = match r_get k l with Some _ => (k', v) :: r_upd k (fun _ => x) l | None => (k', v) :: l ++ [(k, x)] end).
    rewrite IH. destruct (r_get k l); reflexivity.
Qed.

Definition r_forget (k : bytes) (l : entries) : entries :=
  match r_get k l with Some PNone => r_del k l | _ => l end.
Lemma e_forget_rec k l : e_forget k l = r_forget k l.
Proof. unfold e_forget, r_forget. rewrite e_get_rec, e_del_rec. reflexivity. Qed.
Lemma e_put_rec k x l :
  e_put k x l = match r_get k (r_forget k l) with
                | Some _ => r_upd k (fun _ => x) (r_forget k l)
                | None => r_forget k l ++ [(k, x)]
                end.
Proof. unfold e_put. rewrite e_put0_rec, e_forget_rec. reflexivity. Qed.
(* no placeholder under k: nothing to forget *)
Lemma r_forget_id k l : r_get k l <> Some PNone -> r_forget k l = l.
Proof. unfold r_forget. destruct (r_get k l) as [[| | |]|]; congruence. Qed.

Lemma r_upd_id k l : r_upd k (fun x => x) l = l.
Proof.
  induction l as [|[k' v] l IH]; simpl; [reflexivity|].
  destruct (bytes_eqb k' k); [reflexivity|]. rewrite IH. reflexivity.
Qed.

Lemma r_upd_ext k g g' l : (forall x, g x = g' x) -> r_upd k g l = r_upd k g' l.
Proof.
  intro H. induction l as [|[k' v] l IH]; simpl; [reflexivity|].
  destruct (bytes_eqb k' k); [rewrite H|rewrite IH]; reflexivity.
Qed.

(* -- vectors -- *)
Fixpoint rv_upd {A} (n : nat) (g : A -> A) (l : list A) : list A :=
  match l, n with
  | [], _ => []
  | x :: tl, O => g x :: tl
  | x :: tl, S n' => x :: rv_upd n' g tl
  end.
Fixpoint rv_del {A} (n : nat) (l : list A) : list A :=
  match l, n with
  | [], _ => []
  | x :: tl, O => tl
  | x :: tl, S n' => x :: rv_del n' tl
  end.

Lemma v_upd_rec {A} n (g : A -> A) l : v_upd n g l = rv_upd n g l.
Proof.
  revert n. induction l as [|x l IH]; intros [|n]; unfold v_upd in *; simpl; try reflexivity.
  - rewrite <- IH. reflexivity.
Qed.
Lemma v_del_rec {A} n (l : list A) : v_del n l = rv_del n l.
Proof.
  revert n. induction l as [|x l IH]; intros [|n]; unfold v_del in *; simpl; try reflexivity.
  - rewrite <- IH. reflexivity.
Qed.
Lemma rv_upd_id {A} n (l : list A) : rv_upd n (fun x => x) l = l.
Proof. revert n. induction l as [|x l IH]; intros [|n]; simpl; try reflexivity. rewrite IH. reflexivity. Qed.

(** * B. the model's lists under abs *)

Definition abskv (kv : key * item) : bytes * plain := match kv with (k, i) => (k_key k, abs_item i) end.
Definition absl (m : kvs) : entries := map abskv m.
(* `simpl` shows the entries of a table under abs as a `map`: name them again *)
Ltac fold_absl := change (map (fun kv : key * item => let (k, i) := kv in (k_key k, abs_item i))) with absl.

Lemma abs_tbl_eq items d im dt p sp : abs_tbl (Tbl items d im dt p sp) = PTab false dt (absl items).
Proof. reflexivity. Qed.
Lemma abs_inline_eq items pre im dt d sp : abs_value (VInline items pre im dt d sp) = PTab true dt (absl items).
Proof. reflexivity. Qed.

Lemma absl_get m k :
  r_get k (absl m) = match kv_get m k with Some (_, i) => Some (abs_item i) | None => None end.
Proof.
  induction m as [|[k' v] m IH]; simpl; [reflexivity|].
  destruct (bytes_eqb (k_key k') k); [reflexivity|exact IH].
Qed.

Lemma absl_set m k v : absl (kv_set m k v) = r_upd k (fun _ => abs_item v) (absl m).
Proof.
  induction m as [|[k' v'] m IH]; simpl; [reflexivity|].
  destruct (bytes_eqb (k_key k') k); simpl; [reflexivity|]. rewrite IH. reflexivity.
Qed.

Lemma absl_set_fmt m k v : absl (kv_set_fmt m k v) = r_upd k (fun _ => abs_item v) (absl m).
Proof.
  induction m as [|[k' v'] m IH]; simpl; [reflexivity|].
  destruct (bytes_eqb (k_key k') k); simpl; [reflexivity|]. rewrite IH. reflexivity.
Qed.

Lemma absl_push m k v : absl (kv_push m k v) = absl m ++ [(k_key k, abs_item v)].
Proof. unfold kv_push, absl. rewrite map_app. reflexivity. Qed.

Lemma absl_remove m k : absl (kv_remove m k) = r_del k (absl m).
Proof.
  induction m as [|[k' v'] m IH]; simpl; [reflexivity|].
  destruct (bytes_eqb (k_key k') k); simpl; [reflexivity|]. rewrite IH. reflexivity.
Qed.

Lemma absl_kv_upd k f g m m' :
  kv_upd k f m = Some m' ->
  (forall i i', f i = Some i' -> abs_item i' = g (abs_item i)) ->
  absl m' = r_upd k g (absl m).
Proof.
  intros H Hf. revert m' H. induction m as [|[k' v] m IH]; intros m' H; simpl in *; [discriminate|].
  destruct (bytes_eqb (k_key k') k).
  - destruct (f v) as [v'|] eqn:F; simpl in H; [|discriminate].
    injection H as <-. simpl. rewrite (Hf _ _ F). reflexivity.
  - destruct (kv_upd k f m) as [m1|]; simpl in H; [|discriminate].
    injection H as <-. simpl. rewrite (IH m1 eq_refl). reflexivity.
Qed.

Lemma abs_item_none i : abs_item i = PNone <-> i = INone.
Proof.
  destruct i as [|[| |]|[? ? ? ? ? ?]|]; simpl; split; intro H; try reflexivity; discriminate.
Qed.

Lemma absl_purge m k : absl (kv_purge m k) = r_forget k (absl m).
Proof.
  unfold kv_purge, r_forget. rewrite absl_get.
  destruct (kv_get m k) as [[k' i]|]; [|reflexivity].
  destruct i as [|v|t|ts sp]; simpl.
  - apply absl_remove.
  - destruct v; reflexivity.
  - destruct t; reflexivity.
  - reflexivity.
Qed.

Lemma absl_items_insert m k it :
  absl (items_insert m k it) = e_put k (abs_item it) (absl m).
Proof.
  unfold items_insert. rewrite e_put_rec, <- absl_purge, absl_get.
  destruct (kv_get (kv_purge m k) k) as [[k' i]|].
  - apply absl_set_fmt.
  - apply absl_push.
Qed.

Lemma absl_kv_insert m k it :
  absl (kv_insert m k it) = e_put (k_key k) (abs_item it) (absl m).
Proof.
  unfold kv_insert. rewrite e_put_rec, <- absl_purge, absl_get.
  destruct (kv_get (kv_purge m (k_key k)) (k_key k)) as [[k' i]|].
  - apply absl_set.
  - apply absl_push.
Qed.

(* -- sort: the model's sort is the reference stable sort when the two comparators agree -- *)
Lemma absl_ins_by lem les x m :
  (forall a b, lem a b = les (abskv a) (abskv b)) ->
  absl (kv_ins_by lem x m) = sorted_insert les (abskv x) (absl m).
Proof.
  intro Hc. induction m as [|y m IH]; simpl; [reflexivity|].
  rewrite (Hc x y). destruct (les (abskv x) (abskv y)); simpl; [reflexivity|].
  rewrite IH. reflexivity.
Qed.
Lemma absl_sort_by lem les m :
  (forall a b, lem a b = les (abskv a) (abskv b)) ->
  absl (kv_sort_by lem m) = stable_sort les (absl m).
Proof.
  intro Hc. induction m as [|x m IH]; simpl; [reflexivity|].
  rewrite (absl_ins_by lem les x _ Hc), IH. reflexivity.
Qed.

(* sort_keys is sort_by with the key order *)
Definition kle_kv (x y : key * item) : bool := key_leb (k_key (fst x)) (k_key (fst y)).
Lemma kv_ins_sorted_by x m : kv_ins_sorted x m = kv_ins_by kle_kv x m.
Proof. induction m as [|y m IH]; simpl; [reflexivity|]. rewrite IH. reflexivity. Qed.
Lemma kv_sort_keys_by m : kv_sort_keys m = kv_sort_by kle_kv m.
Proof. induction m as [|x m IH]; simpl; [reflexivity|]. rewrite kv_ins_sorted_by, IH. reflexivity. Qed.

Definition kle (a b : bytes * plain) : bool := key_leb (fst a) (fst b).
Lemma absl_sort_keys m : absl (kv_sort_keys m) = e_sort (absl m).
Proof. rewrite kv_sort_keys_by. apply absl_sort_by. intros [ka ia] [kb ib]. reflexivity. Qed.

Lemma tcmp_le_abs c a b : tcmp_le c a b = scmp_le c false (abskv a) (abskv b).
Proof.
  destruct a as [ka ia], b as [kb ib]. destruct c; [reflexivity|]. unfold tcmp_le, scmp_le, scmp_base. simpl.
  assert (R : forall i, item_rank i = plain_rank (abs_item i)).
  { intros [|[[s|z|f|bb|dt] r d|vals tr cm d sp|items pre im dt d sp]|[items d im dt p sp]|ts sp]; reflexivity. }
  rewrite !R. reflexivity.
Qed.
Lemma icmp_le_abs c a b : icmp_le c a b = scmp_le c true (abskv a) (abskv b).
Proof.
  destruct a as [ka ia], b as [kb ib]. unfold icmp_le, scmp_le. simpl.
  assert (V : forall v, is_val (abs_value v) = true) by (intros [| |]; reflexivity).
  assert (N : forall i, match i with IValue _ => False | _ => True end -> is_val (abs_item i) = false).
  { intros [|v|[items d im dt p sp]|ts sp] H; try reflexivity. contradiction. }
  assert (R : forall v, value_rank v = plain_rank (abs_value v)).
  { intros [[s|z|f|bb|dt] r d|vals tr cm d sp|items pre im dt d sp]; reflexivity. }
  destruct ia as [|va|ta|tsa spa].
  - rewrite (N INone I). reflexivity.
  - change (abs_item (IValue va)) with (abs_value va). rewrite V.
    destruct ib as [|vb|tb|tsb spb].
    + rewrite (N INone I). reflexivity.
    + change (abs_item (IValue vb)) with (abs_value vb). rewrite V.
      destruct c; unfold scmp_base; cbn [fst snd]; [reflexivity|]. rewrite !R. reflexivity.
    + rewrite (N (ITable tb) I). reflexivity.
    + rewrite (N (IAot tsb spb) I). reflexivity.
  - rewrite (N (ITable ta) I). reflexivity.
  - rewrite (N (IAot tsa spa) I). reflexivity.
Qed.

(* -- vectors -- *)
Lemma map_nth_upd {A B} (ab : A -> B) n (f : A -> option A) (g : B -> B) l l' :
  nth_upd n f l = Some l' ->
  (forall x x', f x = Some x' -> ab x' = g (ab x)) ->
  map ab l' = rv_upd n g (map ab l).
Proof.
  intros H Hf. revert n l' H. induction l as [|x l IH]; intros [|n] l' H; simpl in *; try discriminate.
  - destruct (f x) as [x'|] eqn:F; simpl in H; [|discriminate]. injection H as <-.
    simpl. rewrite (Hf _ _ F). reflexivity.
  - destruct (nth_upd n f l) as [l1|] eqn:E; simpl in H; [|discriminate]. injection H as <-.
    simpl. rewrite (IH n l1 E). reflexivity.
Qed.

Lemma map_vec_insert {A B} (ab : A -> B) i x l l' :
  vec_insert i x l = Some l' -> map ab l' = v_ins i (ab x) (map ab l).
Proof.
  revert l l'. induction i as [|i IH]; intros l l' H; simpl in H.
  - injection H as <-. reflexivity.
  - destruct l as [|y l]; [discriminate|].
    destruct (vec_insert i x l) as [l1|] eqn:E; simpl in H; [|discriminate]. injection H as <-.
    unfold v_ins in *. simpl. rewrite (IH l l1 E). reflexivity.
Qed.

Lemma map_vec_remove {A B} (ab : A -> B) i l y l' :
  vec_remove i l = Some (y, l') -> map ab l' = rv_del i (map ab l).
Proof.
  revert i y l'. induction l as [|z l IH]; intros [|i] y l' H; simpl in H; try discriminate.
  - injection H as <- <-. reflexivity.
  - destruct (vec_remove i l) as [[y1 l1]|] eqn:E; simpl in H; [|discriminate]. injection H as <- <-.
    simpl. rewrite (IH i y1 l1 E). reflexivity.
Qed.
