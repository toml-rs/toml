(* Proofs/LexEquivBase.v — shared machinery of the token-level (L1) proofs of C01/C02:
   span_while up to the first byte outside the class, inputs and `advance`, inversion ("the parser
   returned Ok, so it read exactly ...") and evaluation ("the input starts with ..., so the parser
   returns ...") lemmas for the mini-winnow primitives in terms of the text read, failure without
   commitment through the combinators, and the fuel-free description `runs` of the repeat loops.
   The facts about bytes, lists, UTF-8 and the combinators that need none of these notions are in
   Base/*Facts.v and come along with this file. *)
From TV Require Import Base.Prelude Base.Utf8 Base.Winnow Spec.Abnf Spec.Lex.
From TV Require Export Base.BytesFacts Base.ListFacts Base.Utf8Facts Base.WinnowFacts.
Require Import Lia ZifyBool ZifyN ZifyNat.

(* the decimal value the code computes is the grammar's positional value *)
Lemma digit_of_val b : Abnf.digit b = true -> digit_of b = digit_val b.
Proof. intro H. unfold digit_of. unfold Abnf.digit in H. rewrite H. reflexivity. Qed.

Lemma dec_value_acc_horner ds : forallb Abnf.digit ds = true -> forall acc,
  dec_value_acc acc ds = fold_left (fun a b => (a * 10 + digit_of b)%N) ds acc.
Proof.
  induction ds as [|b ds IH]; intros H acc; [reflexivity|].
  cbn [forallb] in H. apply andb_true_iff in H as [Hd Hds]. cbn [dec_value_acc fold_left].
  rewrite (IH Hds). rewrite (digit_of_val b Hd). reflexivity.
Qed.

Lemma dec_value_horner ds : forallb Abnf.digit ds = true -> dec_value ds = horner 10 ds.
Proof. intro H. unfold dec_value, horner. apply dec_value_acc_horner. exact H. Qed.

(* turn every byte-class test into comparisons on [b2n b] (then `lia`) *)
Ltac cls :=
  unfold all, non_eol, mlb_unescaped, basic_unescaped, wschar, mll_char, literal_char,
    unquoted_key_char, Abnf.digit, digit1_9, digit0_7, digit0_1, Abnf.hexdig, non_ascii, rng,
    is_cont, inr in *;
  rewrite ?byte_eqb_n in *;
  cbn [b2n Byte.to_N] in *.

(* ---- span_while ------------------------------------------------------------------------------ *)
(* the head of r is not in class f (or r is empty) *)
Definition stops (f : byte -> bool) (r : bytes) : Prop :=
  match r with [] => True | b :: _ => f b = false end.

Lemma span_while_exact f a r : forallb f a = true -> stops f r -> span_while f (a ++ r) = (a, r).
Proof.
  intros Ha Hr. destruct r as [|b r]; [rewrite app_nil_r; apply span_while_all_true, Ha|].
  apply span_while_app_stop; [exact Ha|exact Hr].
Qed.

Lemma span_while_split f s : exists a r, s = a ++ r /\ forallb f a = true /\ stops f r /\ span_while f s = (a, r).
Proof.
  exists (fst (span_while f s)), (snd (span_while f s)).
  split; [symmetry; apply span_while_app|split; [apply span_while_all|split]].
  - pose proof (span_while_stop f s) as H. unfold stops. destruct (snd (span_while f s)); exact H.
  - destruct (span_while f s); reflexivity.
Qed.

(* ---- inputs ----------------------------------------------------------------------------------- *)
(* the input left after reading the text t *)
Definition adv (t : bytes) (i : input) : input := advance (length t) i.

(* the parser went from i to i' reading exactly t *)
Definition splits (i : input) (t : bytes) (i' : input) : Prop :=
  rest i = t ++ rest i' /\ i' = adv t i.

Lemma adv_nil i : adv [] i = i.
Proof. destruct i as [r p d]. unfold adv, advance. cbn. f_equal. lia. Qed.

Lemma rest_adv t r i : rest i = t ++ r -> rest (adv t i) = r.
Proof. intro H. unfold adv, advance. cbn [rest]. rewrite H. apply skipn_app_len. Qed.

Lemma adv_adv t1 t2 i : adv t2 (adv t1 i) = adv (t1 ++ t2) i.
Proof.
  unfold adv, advance. cbn [rest pos depth]. f_equal.
  - rewrite skipn_add. rewrite app_length. reflexivity.
  - rewrite app_length. lia.
Qed.

Lemma adv_mk t r p d : adv t (mkIn (t ++ r) p d) = mkIn r (p + N.of_nat (length t))%N d.
Proof. unfold adv, advance. cbn [rest pos depth]. rewrite skipn_app_len. reflexivity. Qed.

Lemma advance_adv n i t r : rest i = t ++ r -> length t = n -> advance n i = adv t i.
Proof. intros _ H. subst. reflexivity. Qed.

Lemma pos_adv t i : pos (adv t i) = (pos i + N.of_nat (length t))%N.
Proof. reflexivity. Qed.
Lemma depth_adv t i : depth (adv t i) = depth i.
Proof. reflexivity. Qed.
Lemma splits_depth i t i' : splits i t i' -> depth i' = depth i.
Proof. intros [_ ->]. apply depth_adv. Qed.

Lemma splits_nil i : splits i [] i.
Proof. split; [reflexivity|symmetry; apply adv_nil]. Qed.

Lemma splits_adv i t r : rest i = t ++ r -> splits i t (adv t i).
Proof. intro H. split; [|reflexivity]. rewrite (rest_adv t r i H). exact H. Qed.

Lemma splits_trans i t1 i1 t2 i2 : splits i t1 i1 -> splits i1 t2 i2 -> splits i (t1 ++ t2) i2.
Proof.
  intros [H1 E1] [H2 E2]. split.
  - rewrite H1, H2. apply app_assoc.
  - subst. apply adv_adv.
Qed.

Lemma splits_len i t i' : splits i t i' -> length (rest i) = length t + length (rest i').
Proof. intros [H _]. rewrite H. apply app_length. Qed.

Lemma splits_mk t r p d : splits (mkIn (t ++ r) p d) t (mkIn r (p + N.of_nat (length t))%N d).
Proof. split; [reflexivity|]. symmetry. apply adv_mk. Qed.

(* the text between two cursors, as `.take()` computes it *)
Lemma splits_taken i t i' : splits i t i' -> firstn (N.to_nat (pos i' - pos i)) (rest i) = t.
Proof.
  intros [H E]. subst i'. rewrite pos_adv. rewrite H.
  replace (N.to_nat (pos i + N.of_nat (length t) - pos i)) with (length t) by lia.
  apply firstn_app_len.
Qed.

(* ---- failure ------------------------------------------------------------------------------------ *)
(* p fails at i without commitment *)
Definition fails {A} (p : parser A) (i : input) : Prop := exists e j, p i = Bt e j.

(* ---- inversion: what an Ok result tells ----------------------------------------------------------- *)

Lemma any_inv i b i' : any i = Ok b i' -> splits i [b] i'.
Proof.
  unfold any. destruct (rest i) as [|c r] eqn:E; [discriminate|]. intro H. injection H as <- <-.
  apply (splits_adv i [c] r). exact E.
Qed.

Lemma one_of_inv f i b i' : one_of f i = Ok b i' -> f b = true /\ splits i [b] i'.
Proof.
  unfold one_of. destruct (rest i) as [|c r] eqn:E; [discriminate|].
  destruct (f c) eqn:F; [|discriminate]. intro H. injection H as <- <-.
  split; [exact F|]. apply (splits_adv i [c] r). exact E.
Qed.

Lemma byte_inv x i b i' : byte_ x i = Ok b i' -> b = x /\ splits i [x] i'.
Proof.
  unfold byte_. intro H. apply one_of_inv in H as [F S]. apply byte_eqb_eq in F. subst. auto.
Qed.

Lemma lit_inv l i x i' : lit l i = Ok x i' -> x = l /\ splits i l i'.
Proof.
  unfold lit. destruct (strip_prefix l (rest i)) as [r|] eqn:E; [|discriminate].
  intro H. injection H as <- <-. split; [reflexivity|].
  apply strip_prefix_spec in E. apply (splits_adv i l r). exact E.
Qed.

Lemma take_while_inv m f i got i' :
  take_while_mn m None f i = Ok got i' ->
  splits i got i' /\ forallb f got = true /\ stops f (rest i') /\ m <= length got.
Proof.
  unfold take_while_mn.
  destruct (span_while_split f (rest i)) as (a & r & E & Ha & Hr & Es). rewrite Es. cbn [fst].
  destruct (Nat.ltb (length a) m) eqn:L; [discriminate|]. intro H. injection H as <- <-.
  assert (S : splits i a (advance (length a) i)) by (apply (splits_adv i a r); exact E).
  split; [exact S|]. split; [exact Ha|]. split.
  - change (advance (length a) i) with (adv a i). rewrite (rest_adv a r i E). exact Hr.
  - apply Nat.ltb_ge in L. exact L.
Qed.

Lemma opt_inv {A} (p : parser A) i o i' :
  opt p i = Ok o i' -> (exists a, o = Some a /\ p i = Ok a i') \/ (o = None /\ i' = i /\ fails p i).
Proof.
  unfold opt, fails. destruct (p i) as [a i1|e j| |]; try discriminate; intro H; injection H as <- <-.
  - left. eauto.
  - right. eauto.
Qed.

Lemma alt_inv {A} (p q : parser A) i a i' :
  alt p q i = Ok a i' -> p i = Ok a i' \/ (fails p i /\ q i = Ok a i').
Proof.
  unfold alt, fails. destruct (p i) as [a1 i1|e j| |]; try discriminate; intro H.
  - left. exact H.
  - right. eauto.
Qed.

(* ---- evaluation: what the parser does on a known prefix -------------------------------------------- *)
Lemma bind_fails {A B} (p : parser A) (f : A -> parser B) i : fails p i -> fails (bind p f) i.
Proof. intros (e & j & H). exists e, j. apply bind_bt, H. Qed.
Lemma bind_ok_fails {A B} (p : parser A) (f : A -> parser B) i a i' :
  p i = Ok a i' -> fails (f a) i' -> fails (bind p f) i.
Proof. intros E F. unfold fails. rewrite (bind_ok _ _ _ _ _ E). exact F. Qed.
Lemma pmap_fails {A B} (f : A -> B) (p : parser A) i : fails p i -> fails (pmap f p) i.
Proof. intros (e & j & H). exists e, j. apply pmap_bt, H. Qed.
Lemma pvoid_fails {A} (p : parser A) i : fails p i -> fails (pvoid p) i.
Proof. apply pmap_fails. Qed.
Lemma pvalue_fails {A B} (b : B) (p : parser A) i : fails p i -> fails (pvalue b p) i.
Proof. apply pmap_fails. Qed.
Lemma alt_fails_l {A} (p q : parser A) i : fails p i -> alt p q i = q i.
Proof. intros (e & j & H). apply (alt_bt _ _ _ _ _ H). Qed.
Lemma alt_fails {A} (p q : parser A) i : fails p i -> fails q i -> fails (alt p q) i.
Proof. intros Hp Hq. unfold fails. rewrite (alt_fails_l _ _ _ Hp). exact Hq. Qed.
Lemma opt_fails {A} (p : parser A) i : fails p i -> opt p i = Ok None i.
Proof. intros (e & j & H). apply (opt_bt _ _ _ _ H). Qed.
Lemma context_fails {A} (p : parser A) i : fails p i -> fails (context p) i.
Proof. intros (e & j & H). eexists _, j. apply context_bt, H. Qed.
Lemma peek_fails {A} (p : parser A) i : fails p i -> fails (peek p) i.
Proof. intros (e & j & H). exists e, i. apply (peek_bt _ _ _ _ H). Qed.
Lemma try_map_fails {A B} (f : A -> tm B) (p : parser A) i : fails p i -> fails (try_map f p) i.
Proof. intros (e & j & H). exists e, j. apply try_map_bt, H. Qed.
Lemma and_then_fails {A B} (p : parser A) (f : A -> sub B) i : fails p i -> fails (and_then p f) i.
Proof. intros (e & j & H). exists e, j. apply and_then_bt, H. Qed.
Lemma unchecked_fails w (p : parser bytes) i : fails p i -> fails (unchecked_utf8 w p) i.
Proof. intros (e & j & H). exists e, j. apply unchecked_bt, H. Qed.
Lemma taken_ok {A} (p : parser A) i a t i' : p i = Ok a i' -> splits i t i' -> taken p i = Ok t i'.
Proof. intros H S. unfold taken. rewrite H. rewrite (splits_taken _ _ _ S). reflexivity. Qed.
Lemma taken_fails {A} (p : parser A) i : fails p i -> fails (taken p) i.
Proof. intros (e & j & H). exists e, j. apply taken_bt, H. Qed.

Lemma any_ok i b r : rest i = b :: r -> any i = Ok b (adv [b] i).
Proof. intro H. unfold any. rewrite H. reflexivity. Qed.
Lemma any_fails i : rest i = [] -> fails any i.
Proof. intro H. unfold fails, any. rewrite H. eauto. Qed.

Lemma one_of_ok f i b r : rest i = b :: r -> f b = true -> one_of f i = Ok b (adv [b] i).
Proof. intros H F. unfold one_of. rewrite H, F. reflexivity. Qed.
Lemma one_of_fails f i : stops f (rest i) -> fails (one_of f) i.
Proof.
  unfold stops, fails, one_of. destruct (rest i) as [|b r]; [eauto|]. intro F. rewrite F. eauto.
Qed.
Lemma one_of_ext f g i : (forall b, f b = g b) -> one_of f i = one_of g i.
Proof. intro H. unfold one_of. destruct (rest i); [reflexivity|]. rewrite H. reflexivity. Qed.

Lemma byte_ok x i r : rest i = x :: r -> byte_ x i = Ok x (adv [x] i).
Proof. intro H. unfold byte_. apply (one_of_ok _ _ _ r H). apply byte_eqb_refl. Qed.
Lemma byte_fails x i : stops (byte_eqb x) (rest i) -> fails (byte_ x) i.
Proof. apply one_of_fails. Qed.

Lemma lit_ok l i r : rest i = l ++ r -> lit l i = Ok l (adv l i).
Proof.
  intro H. unfold lit. destruct (strip_prefix l (rest i)) eqn:E; [reflexivity|].
  apply (proj2 (strip_prefix_spec l (rest i) r)) in H. congruence.
Qed.
Lemma lit_fails l i : (forall r, rest i <> l ++ r) -> fails (lit l) i.
Proof.
  intro H. unfold fails, lit. destruct (strip_prefix l (rest i)) eqn:E; [|eauto].
  apply strip_prefix_spec in E. destruct (H _ E).
Qed.

Lemma take_while_ok m f i a r :
  rest i = a ++ r -> forallb f a = true -> stops f r -> m <= length a ->
  take_while_mn m None f i = Ok a (adv a i).
Proof.
  intros H Ha Hr Hm. unfold take_while_mn. rewrite H. rewrite (span_while_exact f a r Ha Hr). cbn [fst].
  apply Nat.ltb_ge in Hm. rewrite Hm. reflexivity.
Qed.
Lemma take_while1_fails f i : stops f (rest i) -> fails (take_while1 f) i.
Proof.
  unfold stops, fails, take_while1, take_while_mn. destruct (rest i) as [|b r]; cbn.
  - eauto.
  - intro F. rewrite F. cbn. eauto.
Qed.

(* ---- the repeat loops without fuel --------------------------------------------------------------------- *)
(* p succeeds on i, i1, ... (consuming each time) and then fails without commitment at i' *)
Inductive runs {A} (p : parser A) : input -> list A -> input -> Prop :=
| runs_nil i : fails p i -> runs p i [] i
| runs_cons i a i1 l i2 : p i = Ok a i1 -> length (rest i1) < length (rest i) ->
    runs p i1 l i2 -> runs p i (a :: l) i2.

(* a parser never lengthens its input *)
Definition shrinking {A} (p : parser A) : Prop :=
  forall i a i', p i = Ok a i' -> length (rest i') <= length (rest i).

Lemma splits_shrinking {A} (p : parser A) :
  (forall i a i', p i = Ok a i' -> exists t, splits i t i') -> shrinking p.
Proof. intros H i a i' E. destruct (H i a i' E) as (t & S). apply splits_len in S. lia. Qed.

Lemma repeat0_f_runs {A} (p : parser A) i l i' : runs p i l i' ->
  forall fuel acc, length (rest i) < fuel -> repeat0_f fuel p acc i = Ok (rev acc ++ l) i'.
Proof.
  induction 1 as [i (e & j & F)|i a i1 l i2 E Hlt R IH]; intros fuel acc Hf;
    (destruct fuel as [|fuel]; [lia|]); cbn [repeat0_f].
  - rewrite F. rewrite app_nil_r. reflexivity.
  - rewrite E. destruct (Nat.eqb (length (rest i1)) (length (rest i))) eqn:Q.
    + apply Nat.eqb_eq in Q. lia.
    + rewrite IH by lia. cbn [rev]. rewrite <- app_assoc. reflexivity.
Qed.

Lemma repeat0_runs {A} (p : parser A) i l i' : runs p i l i' -> repeat0 p i = Ok l i'.
Proof. intro R. unfold repeat0. rewrite (repeat0_f_runs p i l i' R) by lia. reflexivity. Qed.

Lemma repeat0_f_inv {A} (p : parser A) : shrinking p ->
  forall fuel acc i l i', repeat0_f fuel p acc i = Ok l i' -> exists l', l = rev acc ++ l' /\ runs p i l' i'.
Proof.
  intros Hs. induction fuel as [|fuel IH]; intros acc i l i' H; cbn [repeat0_f] in H; [discriminate|].
  destruct (p i) as [a i1|e j| |] eqn:E; try discriminate.
  - destruct (Nat.eqb (length (rest i1)) (length (rest i))) eqn:Q; [discriminate|].
    apply Nat.eqb_neq in Q. pose proof (Hs _ _ _ E) as Hle.
    apply IH in H as (l' & -> & R). exists (a :: l'). split.
    + cbn [rev]. rewrite <- app_assoc. reflexivity.
    + eapply runs_cons; [exact E|lia|exact R].
  - injection H as <- <-. exists []. split; [rewrite app_nil_r; reflexivity|].
    apply runs_nil. exists e, j. exact E.
Qed.

Lemma repeat0_inv {A} (p : parser A) i l i' : shrinking p -> repeat0 p i = Ok l i' -> runs p i l i'.
Proof.
  intros Hs H. unfold repeat0 in H. apply (repeat0_f_inv p Hs) in H as (l' & -> & R). exact R.
Qed.

Lemma repeat1_runs {A} (p : parser A) i a i1 l i' :
  p i = Ok a i1 -> runs p i1 l i' -> repeat1 p i = Ok (a :: l) i'.
Proof.
  intros E R. unfold repeat1. rewrite E. rewrite (repeat0_f_runs p i1 l i' R) by lia. reflexivity.
Qed.
Lemma repeat1_fails {A} (p : parser A) i : fails p i -> fails (repeat1 p) i.
Proof. intros (e & j & H). unfold fails, repeat1. rewrite H. eauto. Qed.
Lemma repeat1_inv {A} (p : parser A) i l i' : shrinking p ->
  repeat1 p i = Ok l i' -> exists a i1 l', l = a :: l' /\ p i = Ok a i1 /\ runs p i1 l' i'.
Proof.
  intros Hs H. unfold repeat1 in H. destruct (p i) as [a i1| | |] eqn:E; try discriminate.
  apply (repeat0_f_inv p Hs) in H as (l' & -> & R). exists a, i1, l'. auto.
Qed.

(* a run reads some text, and ends where p fails *)
Lemma runs_end {A} (p : parser A) i l i' : runs p i l i' -> fails p i'.
Proof. induction 1; auto. Qed.

(* ---- UTF-8 ------------------------------------------------------------------------------------------------ *)
Definition ascii (b : byte) : bool := (b2n b <=? 127)%N.

Lemma utf8_ascii s : forallb ascii s = true -> utf8_valid_b s = true.
Proof. exact (Utf8Facts.utf8_ascii s). Qed.
Lemma utf8_app_ascii a s : forallb ascii a = true -> utf8_valid_b (a ++ s) = utf8_valid_b s.
Proof. exact (Utf8Facts.utf8_app_ascii a s). Qed.

Lemma utf8_multi_non_ascii ch : utf8_multi ch -> forallb non_ascii ch = true.
Proof.
  intro H. apply utf8_multi_high in H. revert H. apply forallb_impl.
  intros b Hb. pose proof (b2n_lt b). unfold non_ascii, rng. lia.
Qed.
