(* Proofs/PrintBackDKey.v — C03, class (d): dotted keys of key/value lines.  The last key of a path as
   `key` records it (exact spans); encode_key_path as leaf prefix, the text of the prefix keys, the
   last key, leaf suffix; two key texts in front of the same `=` are the same text. *)
From TV Require Import Base.Prelude Base.Winnow Gen.Consts Spec.Abnf Spec.Lex Spec.Syntax.
From TV Require Import Model.Tree Model.Parse Model.Document Model.Encode.
From TV Require Import Proofs.LexEquivBase Proofs.GrammarSep Proofs.LexEquivKey
                       Proofs.TilingDefs Proofs.PrintBackBase Proofs.PrintBackEnc Proofs.PrintBackKey
                       Proofs.PrintBackHKey.
From TV Require Import Proofs.ModelFacts.
Require Import Lia ZifyBool ZifyN ZifyNat.

(* ---- the last part read by the separated1 loop ends where the loop ends -------------------------------------------- *)
Lemma seps_last i l i' : seps key_part dot_sep i l i' -> l <> [] ->
  exists mid jn d, splits i mid jn /\ key_part jn = Ok (last l d) i'.
Proof.
  induction 1 as [i F|i x i1 E Hlt F|i x i1 a i2 l i3 E Hlt E2 Hle R IH]; intro Hne; try congruence.
  apply byte_inv in E as [_ S1]. destruct l as [|b l'].
  - inversion R; subst; exists [x2e], i1, a; (split; [exact S1|exact E2]).
  - destruct (IH ltac:(discriminate)) as (mid & jn & d & Sm & Ek).
    apply key_part_sound in E2 as (w0 & t & w & _ & _ & _ & S2 & _).
    exists ([x2e] ++ (w0 ++ t ++ w) ++ mid), jn, d. split; [exact (splits_trans _ _ _ _ _ S1 (splits_trans _ _ _ _ _ S2 Sm))|].
    cbn [last] in *. exact Ek.
Qed.

Lemma last_nonempty_irrel {A} (l : list A) d d' : l <> [] -> last l d = last l d'.
Proof. induction l as [|x l IH]; [congruence|]. intros _. destruct l; [reflexivity|]. apply IH. discriminate. Qed.

(* what fix_key_path makes of the last part *)
Lemma fix_key_path_last a l p : fix_key_path (a :: l) = Some p ->
  exists path k, p = path ++ [k] /\ k_key k = k_key (last l a) /\ k_repr k = k_repr (last l a)
    /\ k_leaf k = decor_new (match d_prefix (k_dotted a) with Some x => x | None => REmpty end)
                            (match d_suffix (k_dotted (last l a)) with Some x => x | None => REmpty end).
Proof.
  unfold fix_key_path. set (first' := match d_prefix (k_dotted a) with Some _ => set_dotted_prefix a REmpty | None => a end).
  assert (Hf : k_key first' = k_key a /\ k_repr first' = k_repr a /\ d_suffix (k_dotted first') = d_suffix (k_dotted a))
    by (unfold first'; destruct (d_prefix (k_dotted a)); repeat split).
  destruct Hf as (F1 & F2 & F3).
  destruct (rev (first' :: l)) as [|lst rinit] eqn:Er; [discriminate|]. intro H. injection H as <-.
  assert (El : (lst = first' /\ l = []) \/ (lst = last l a /\ l <> [])).
  { destruct l as [|b l'] using rev_ind; [left; cbn in Er; injection Er as <- _; auto|right]. clear IHl'.
    change (first' :: l' ++ [b]) with ((first' :: l') ++ [b]) in Er. rewrite rev_app_distr in Er. cbn [rev app] in Er. injection Er as <- _.
    split; [rewrite last_last; reflexivity|destruct l'; discriminate]. }
  set (lst' := match d_suffix (k_dotted lst) with Some _ => set_dotted_suffix lst REmpty | None => lst end).
  assert (Hl : k_key lst' = k_key lst /\ k_repr lst' = k_repr lst) by (unfold lst'; destruct (d_suffix (k_dotted lst)); split; reflexivity).
  destruct Hl as [L1 L2].
  exists (rev rinit), (set_leaf lst' (decor_new (match d_prefix (k_dotted a) with Some p => p | None => REmpty end)
                                                (match d_suffix (k_dotted lst) with Some p => p | None => REmpty end))).
  split; [reflexivity|]. cbn [set_leaf k_key k_repr k_leaf]. rewrite L1, L2.
  destruct El as [[-> ->] | [-> _]]; cbn [last]; [rewrite F1, F2, F3|]; auto.
Qed.

(* the last key of a key path, with the spans it records *)
Theorem key_exact s i kp i' : isrc s i -> key_ i = Ok kp i' ->
  exists path k j0 ja jb w0 pre R w1,
    kp = path ++ [k] /\ ws_tok w0 /\ ws_tok w1
    /\ splits i w0 j0 /\ splits j0 pre ja /\ splits ja R jb /\ splits jb w1 i'
    /\ k_repr k = Some (raw_with_span (pos ja, pos jb))
    /\ k_leaf k = decor_new (raw_with_span (pos i, pos j0)) (raw_with_span (pos jb, pos i')).
Proof.
  intros Hi H. rewrite key_unfold in H. apply bind_inv in H as (path0 & j & H1 & H).
  apply try_map_inv in H1 as (path1 & H1 & Hc). unfold key_check in Hc.
  destruct (check_depth (length path1)); [discriminate|]. injection Hc as ->.
  apply context_inv in H1. apply (separated1_inv _ _ _ _ _ key_part_shrinking dot_sep_shrinking) in H1 as (a & i1 & l & -> & Ea & R).
  destruct (fix_key_path (a :: l)) as [p|] eqn:Ef; [|discriminate]. apply ret_inv in H as [-> ->].
  destruct (fix_key_path_last a l p Ef) as (path & k & -> & _ & Er & El).
  destruct (key_part_exact i a i1 Ea) as (j1 & j2 & w0 & t & w & Hw0 & Ht & Hw & S1 & S2 & S3 & Ea').
  destruct l as [|b l'].
  - (* one part *)
    inversion R; subst; clear R.
    + exists path, k, j1, j1, j2, w0, [], t, w. cbn [last] in *. rewrite Ea' in Er, El. cbn [k_repr k_dotted decor_new d_prefix d_suffix] in Er, El.
      split; [reflexivity|]. split; [exact Hw0|]. split; [exact Hw|]. split; [exact S1|]. split; [apply splits_nil|]. auto.
    + exists path, k, j1, j1, j2, w0, [], t, w. cbn [last] in *. rewrite Ea' in Er, El. cbn [k_repr k_dotted decor_new d_prefix d_suffix] in Er, El.
      split; [reflexivity|]. split; [exact Hw0|]. split; [exact Hw|]. split; [exact S1|]. split; [apply splits_nil|]. auto.
  - (* several parts *)
    destruct (seps_last i1 (b :: l') j R ltac:(discriminate)) as (mid & jn & d & Sm & Ek).
    assert (Ed : last (b :: l') d = last (b :: l') a) by (apply last_nonempty_irrel; discriminate). rewrite Ed in Ek.
    destruct (key_part_exact jn _ j Ek) as (n1 & n2 & v0 & tn & vn & Hv0 & Htn & Hvn & T1 & T2 & T3 & En).
    exists path, k, j1, n1, n2, w0, ((t ++ w) ++ mid ++ v0), tn, vn.
    rewrite En in Er, El. rewrite Ea' in El. cbn [k_repr k_dotted decor_new d_prefix d_suffix] in Er, El.
    split; [reflexivity|]. split; [exact Hw0|]. split; [exact Hvn|]. split; [exact S1|].
    split; [exact (splits_trans _ _ _ _ _ (splits_trans _ _ _ _ _ S2 S3) (splits_trans _ _ _ _ _ Sm T1))|]. auto.
Qed.

(* ---- encode_key_path: leaf prefix, the prefix keys with their dots, the last key, leaf suffix ------------------- *)
Definition kdpre (s : bytes) (k : key) : bytes := decor_prefix (k_dotted (tkey s k)) (fst DEFAULT_KEY_PATH_DECOR).
Definition kdsuf (s : bytes) (k : key) : bytes := decor_suffix (k_dotted (tkey s k)) (snd DEFAULT_KEY_PATH_DECOR).
Definition krepr (s : bytes) (k : key) : bytes := key_display_repr (tkey s k).

Fixpoint mid_text (s : bytes) (ks : list key) (k' : key) : bytes :=
  match ks with
  | [] => [x2e] ++ kdpre s k'
  | k :: r => [x2e] ++ kdpre s k ++ krepr s k ++ kdsuf s k ++ mid_text s r k'
  end.
Definition pre_text (s : bytes) (ks : list key) (k' : key) : bytes :=
  match ks with
  | [] => []
  | k :: r => krepr s k ++ kdsuf s k ++ mid_text s r k'
  end.

Lemma loop_split s leaf D : forall ks k',
  encode_key_path_loop leaf D false (map (tkey s) (ks ++ [k'])) = mid_text s ks k' ++ krepr s k' ++ decor_suffix leaf (snd D).
Proof.
  induction ks as [|k r IH]; intro k'.
  - cbn [app map]. rewrite loop_cons. cbv iota. cbn [encode_key_path_loop mid_text]. unfold kdpre, krepr. rewrite app_nil_r, <- !app_assoc. reflexivity.
  - change (map (tkey s) ((k :: r) ++ [k'])) with (tkey s k :: map (tkey s) (r ++ [k'])). rewrite loop_cons, IH.
    assert (Hl : match map (tkey s) (r ++ [k']) with [] => true | _ => false end = false) by (rewrite map_app; destruct (map (tkey s) r); reflexivity).
    rewrite Hl. cbn [mid_text]. unfold kdpre, kdsuf, krepr. rewrite <- !app_assoc. reflexivity.
Qed.

Theorem enc_split s ks k' D :
  encode_key_path (map (tkey s) (ks ++ [k'])) D
  = decor_prefix (k_leaf (tkey s k')) (fst D) ++ pre_text s ks k' ++ krepr s k' ++ decor_suffix (k_leaf (tkey s k')) (snd D).
Proof.
  assert (Er : rev (map (tkey s) (ks ++ [k'])) = tkey s k' :: rev (map (tkey s) ks)) by (rewrite map_app, rev_app_distr; reflexivity).
  unfold encode_key_path. rewrite Er.
  destruct ks as [|k r].
  - cbn [app map pre_text]. rewrite loop_cons. cbv iota. cbn [encode_key_path_loop]. unfold krepr. rewrite app_nil_r. reflexivity.
  - change (map (tkey s) ((k :: r) ++ [k'])) with (tkey s k :: map (tkey s) (r ++ [k'])). rewrite loop_cons, loop_split. cbv iota.
    assert (Hl : match map (tkey s) (r ++ [k']) with [] => true | _ => false end = false) by (rewrite map_app; destruct (map (tkey s) r); reflexivity).
    rewrite Hl. cbn [pre_text]. unfold kdsuf, krepr. rewrite <- !app_assoc. reflexivity.
Qed.

(* the text of the keys of a line is a key: prefix keys read from key paths, any last key with blank dotted decor *)
Definition lkey (s : bytes) (k : key) : Prop :=
  (exists t, repr_str (toraw s (k_repr k)) = Some t /\ simple_key_tok t (k_key k))
  /\ blankraw s (d_prefix (k_dotted k)) /\ blankraw s (d_suffix (k_leaf k)).

Lemma hkey_lkey s k : hkey s k -> lkey s k.
Proof. intros (H1 & _ & H3 & H4 & _). split; [exact H1|]. auto. Qed.

Lemma krepr_tok s k : lkey s k -> simple_key_tok (krepr s k) (k_key k).
Proof. intros ((t & Hr & Ht) & _). unfold krepr, key_display_repr. rewrite tkey_fields. cbn [k_repr]. rewrite Hr. exact Ht. Qed.

Lemma kdpre_ws s k : blankraw s (d_prefix (k_dotted k)) -> ws_tok (kdpre s k).
Proof. intro H. unfold kdpre. rewrite tkey_fields. unfold decor_prefix, tdecor. cbn [k_dotted d_prefix]. apply (blank_encode s _ _ H ws_nil). Qed.
Lemma kdsuf_ws s k : blankraw s (d_suffix (k_dotted k)) -> ws_tok (kdsuf s k).
Proof. intro H. unfold kdsuf. rewrite tkey_fields. unfold decor_suffix, tdecor. cbn [k_dotted d_suffix]. apply (blank_encode s _ _ H ws_nil). Qed.

Lemma mid_shape s : forall ks k', Forall (hkey s) ks -> lkey s k' ->
  exists w t, ws_tok w /\ key_tok t (map k_key (ks ++ [k'])) /\ mid_text s ks k' ++ krepr s k' = [x2e] ++ w ++ t.
Proof.
  induction ks as [|k r IH]; intros k' HF Hk'.
  - exists (kdpre s k'), (krepr s k'). split; [apply kdpre_ws, Hk'|]. split; [apply key_one, krepr_tok, Hk'|]. cbn [mid_text]. rewrite <- !app_assoc. reflexivity.
  - inversion HF as [|? ? Hk HF']; subst. destruct (IH k' HF' Hk') as (w & t & Hw & Ht & E).
    pose proof Hk as Hk0. destruct Hk as (Hr & _ & _ & Hdp & Hds).
    exists (kdpre s k), (krepr s k ++ kdsuf s k ++ [x2e] ++ w ++ t). split; [apply kdpre_ws, Hdp|]. split.
    + cbn [app map]. apply key_dot; [apply krepr_tok, hkey_lkey, Hk0|apply kdsuf_ws, Hds|exact Hw|exact Ht].
    + cbn [mid_text]. rewrite <- !app_assoc. do 4 f_equal. rewrite <- ?app_assoc in E. exact E.
Qed.

Theorem pre_shape s ks k' : Forall (hkey s) ks -> lkey s k' ->
  exists t, key_tok t (map k_key (ks ++ [k'])) /\ pre_text s ks k' ++ krepr s k' = t.
Proof.
  intros HF Hk'. destruct ks as [|k r].
  - exists (krepr s k'). split; [apply key_one, krepr_tok, Hk'|reflexivity].
  - inversion HF as [|? ? Hk HF']; subst. destruct (mid_shape s r k' HF' Hk') as (w & t & Hw & Ht & E).
    pose proof Hk as Hk0. destruct Hk as (Hr & _ & _ & Hdp & Hds).
    exists (krepr s k ++ kdsuf s k ++ [x2e] ++ w ++ t). split.
    + cbn [app map]. apply key_dot; [apply krepr_tok, hkey_lkey, Hk0|apply kdsuf_ws, Hds|exact Hw|exact Ht].
    + cbn [pre_text]. rewrite <- !app_assoc. do 2 f_equal. exact E.
Qed.

(* ---- a key path as `key` reads it ------------------------------------------------------------------------------------ *)
Lemma splits_pos i t i' : splits i t i' -> pos i' = (pos i + N.of_nat (length t))%N.
Proof. intros [_ ->]. apply pos_adv. Qed.
Lemma splits_le i t i' : splits i t i' -> (pos i <= pos i')%N.
Proof. intro S. rewrite (splits_pos _ _ _ S). lia. Qed.

Lemma raw_with_span_lt a b : (a < b)%N -> raw_with_span (a, b) = RSpanned a b.
Proof. intro H. unfold raw_with_span. cbn [fst snd]. destruct (a =? b)%N eqn:Q; [apply N.eqb_eq in Q; lia|reflexivity]. Qed.

(* the last key k of a key path in front of `=`: its text stands at ja..jb; the prefix keys po with their dots,
   spelled as they print, start at j0; LS: the blanks between the key and `=` *)
Definition key_at (s : bytes) (j0 ja jb : input) (po : list key) (k : key) (LS r : bytes) : Prop :=
  isrc s j0 /\ rest j0 = (pre_text s po k ++ krepr s k) ++ LS ++ [x3d] ++ r
  /\ (forall d, decor_suffix (k_leaf (tkey s k)) d = LS) /\ ws_tok LS
  /\ k_repr k = Some (RSpanned (pos ja) (pos jb)) /\ pos ja = (pos j0 + N.of_nat (length (pre_text s po k)))%N /\ (pos ja < pos jb)%N
  /\ Forall (hkey s) po /\ lkey s k.

(* a key path and `=` as `key` reads them: blanks w0, the prefix keys and the last key spelled as they print, blanks w1 *)
Theorem key_line s i kp i' k1 : isrc s i -> key_ i = Ok kp i' -> splits i' [x3d] k1 ->
  exists path k j0 ja jb w0 w1,
    kp = path ++ [k] /\ hkey s k /\ ws_tok w0 /\ splits i w0 j0
    /\ splits j0 ((pre_text s path k ++ krepr s k) ++ w1 ++ [x3d]) k1 /\ isrc s k1 /\ (pos jb < pos k1)%N
    /\ key_at s j0 ja jb path k w1 (rest k1)
    /\ d_prefix (k_leaf k) = Some (raw_with_span (pos i, pos j0)) /\ (forall d, decor_prefix (k_leaf (tkey s k)) d = w0)
    /\ key_tok (pre_text s path k ++ krepr s k) (map k_key (path ++ [k])).
Proof.
  intros Hi H Se. pose proof (key_hkeys s i kp i' Hi H) as HK.
  destruct (key_exact s i kp i' Hi H) as (path & k & j0 & ja & jb & w0 & pre & R & w1 & -> & Hw0 & Hw1 & S0 & Spre & SR & S1 & Erepr & Eleaf).
  destruct (key_render s i _ i' Hi H) as (w0r & ktr & w1r & _ & _ & _ & Skr & Hi' & Hkenc).
  destruct (isrc_splits s i w0 j0 Hi S0) as [Hj0 _]. destruct (isrc_splits s j0 pre ja Hj0 Spre) as [Hja _].
  destruct (isrc_splits s ja R jb Hja SR) as [Hjb _].
  apply Forall_app in HK as [HKp HKk]. inversion HKk as [|? ? Hk _]; subst.
  assert (EkR : krepr s k = R).
  { unfold krepr, key_display_repr. rewrite tkey_fields. cbn [k_repr]. rewrite Erepr, (span_repr s ja R jb Hja SR). reflexivity. }
  assert (ELP : forall d, decor_prefix (k_leaf (tkey s k)) d = w0).
  { intro d. rewrite tkey_fields. unfold decor_prefix, tdecor. cbn [k_leaf]. rewrite Eleaf. cbn [decor_new d_prefix toraw].
    rewrite (span_prints s i w0 j0 d Hi S0). apply ncr_ws, Hw0. }
  assert (ELS : forall d, decor_suffix (k_leaf (tkey s k)) d = w1).
  { intro d. rewrite tkey_fields. unfold decor_suffix, tdecor. cbn [k_leaf]. rewrite Eleaf. cbn [decor_new d_suffix toraw].
    rewrite (span_prints s jb w1 i' d Hjb S1). apply ncr_ws, Hw1. }
  (* the text between the blanks is what encode_key_path prints there *)
  assert (Epre : pre_text s path k = pre).
  { pose proof (Hkenc DEFAULT_KEY_DECOR) as E1. rewrite enc_split, ELP, ELS, EkR in E1.
    pose proof (splits_trans _ _ _ _ _ S0 (splits_trans _ _ _ _ _ Spre (splits_trans _ _ _ _ _ SR S1))) as [Ra _]. destruct Skr as [Rb _].
    rewrite Ra in Rb. apply app_inv_tail in Rb. rewrite <- Rb in E1. apply app_inv_head in E1. rewrite !app_assoc in E1.
    apply app_inv_tail in E1. apply app_inv_tail in E1. exact E1. }
  rewrite <- Epre in Spre. rewrite <- EkR in SR.
  pose proof (splits_trans _ _ _ _ _ Spre (splits_trans _ _ _ _ _ SR (splits_trans _ _ _ _ _ S1 Se))) as Sk. rewrite !app_assoc in Sk.
  rewrite <- (app_assoc _ w1) in Sk.
  assert (Hlt : (pos ja < pos jb)%N).
  { destruct (simple_key_khead _ _ (krepr_tok s k (hkey_lkey s k Hk))) as (b & t' & Eb & _).
    rewrite (splits_pos _ _ _ SR), Eb. cbn [length]. lia. }
  exists path, k, j0, ja, jb, w0, w1. split; [reflexivity|]. split; [exact Hk|]. split; [exact Hw0|]. split; [exact S0|]. split; [exact Sk|].
  split; [apply (isrc_splits s i' [x3d] k1 Hi' Se)|].
  split; [pose proof (splits_le _ _ _ S1); rewrite (splits_pos _ _ _ Se); cbn [length]; lia|].
  split.
  { split; [exact Hj0|]. split; [destruct Sk as [Rk _]; rewrite Rk, <- !app_assoc; reflexivity|]. split; [exact ELS|]. split; [exact Hw1|].
    split; [rewrite Erepr, (raw_with_span_lt _ _ Hlt); reflexivity|]. split; [apply (splits_pos _ _ _ Spre)|]. split; [exact Hlt|].
    split; [exact HKp|apply hkey_lkey, Hk]. }
  split; [rewrite Eleaf; reflexivity|]. split; [exact ELP|].
  destruct (pre_shape s path k HKp (hkey_lkey s k Hk)) as (tt & Htt & <-). exact Htt.
Qed.

(* ---- two key texts in front of the same `=` ------------------------------------------------------------------------ *)
Lemma key_text_unique tx px lx r1 ty py ly r2 :
  key_tok tx px -> ws_tok lx -> key_tok ty py -> ws_tok ly ->
  tx ++ lx ++ [x3d] ++ r1 = ty ++ ly ++ [x3d] ++ r2 -> tx ++ lx = ty ++ ly.
Proof.
  intros Hx Hlx Hy Hly E.
  set (i := new_input (tx ++ lx ++ [x3d] ++ r1)).
  assert (Sx : key_stop ([x3d] ++ r1)) by (eexists _, _; split; [reflexivity|left; reflexivity]).
  assert (Sy : key_stop ([x3d] ++ r2)) by (eexists _, _; split; [reflexivity|left; reflexivity]).
  destruct (key_raw_complete i [] tx px lx _ ws_nil Hx Hlx eq_refl Sx) as (p1 & E1 & _).
  assert (Ri : rest i = [] ++ ty ++ ly ++ [x3d] ++ r2) by (unfold i; cbn [new_input rest app]; exact E).
  destruct (key_raw_complete i [] ty py ly _ ws_nil Hy Hly Ri Sy) as (p2 & E2 & _).
  assert (Ea : adv ([] ++ tx ++ lx) i = adv ([] ++ ty ++ ly) i) by congruence. cbn [app] in Ea.
  assert (L : length (tx ++ lx) = length (ty ++ ly)) by (apply (f_equal pos) in Ea; rewrite !pos_adv in Ea; lia).
  assert (E' : (tx ++ lx) ++ [x3d] ++ r1 = (ty ++ ly) ++ [x3d] ++ r2) by (rewrite <- !app_assoc; exact E).
  apply (app_same_length _ _ _ _ E' L).
Qed.

(* ---- a key has no line feed in it ---------------------------------------------------------------------------------- *)
Definition nolf (t : bytes) : Prop := forallb (fun b => negb (byte_eqb b x0a)) t = true.

Lemma nolf_app a b : nolf (a ++ b) <-> nolf a /\ nolf b.
Proof. unfold nolf. rewrite forallb_app, andb_true_iff. reflexivity. Qed.
Lemma nolf_nil : nolf [].
Proof. reflexivity. Qed.
Lemma nolf_class (c : byte -> bool) t : (forall b, c b = true -> byte_eqb b x0a = false) -> all c t -> nolf t.
Proof.
  intros Hc H. unfold nolf, all in *. rewrite forallb_forall in *. intros b Hb. rewrite (Hc b (H b Hb)). reflexivity.
Qed.
Lemma nolf_ws w : ws_tok w -> nolf w.
Proof. apply nolf_class. intros b Hb. revert Hb. cls. lia. Qed.

Lemma nolf_star_one (c : byte -> bool) t v : (forall b, c b = true -> byte_eqb b x0a = false) -> star (one c) t v -> nolf t.
Proof.
  intros Hc H. induction H as [|t1 v1 t2 v2 (b & Hb & -> & ->) _ IH]; [reflexivity|]. apply nolf_app. split; [|exact IH].
  unfold nolf. cbn [forallb]. rewrite (Hc b Hb). reflexivity.
Qed.

Lemma escaped_nolf t v : escaped_tok t v -> nolf t.
Proof.
  intros [b n Hb|b k h Hb Hl Hh _].
  - unfold nolf. cbn [forallb]. rewrite andb_true_r. apply andb_true_iff. split; [reflexivity|].
    destruct (byte_eqb b x0a) eqn:E; [|reflexivity]. apply byte_eqb_eq in E. subst b. discriminate Hb.
  - unfold nolf. cbn [forallb]. apply andb_true_iff. split; [reflexivity|]. apply andb_true_iff. split.
    + destruct (byte_eqb b x0a) eqn:E; [|reflexivity]. apply byte_eqb_eq in E. subst b. discriminate Hb.
    + apply (nolf_class Abnf.hexdig); [|exact Hh]. intros c Hc. revert Hc. cls. lia.
Qed.

Lemma basic_body_nolf t v : star basic_char t v -> nolf t.
Proof.
  intro H. induction H as [|t1 v1 t2 v2 H1 _ IH]; [reflexivity|]. apply nolf_app. split; [|exact IH].
  destruct H1 as [(b & Hb & -> & ->) | H1]; [|apply (escaped_nolf _ _ H1)].
  unfold nolf. cbn [forallb]. rewrite andb_true_r. apply negb_true_iff. revert Hb. cls. lia.
Qed.

Lemma simple_key_nolf t k : simple_key_tok t k -> nolf t.
Proof.
  intros [(_ & body & -> & Hb) | [(_ & body & -> & Hb) | [[_ Ha] _]]].
  - apply nolf_app. split; [reflexivity|]. apply nolf_app. split; [apply (basic_body_nolf _ _ Hb)|reflexivity].
  - apply nolf_app. split; [reflexivity|]. apply nolf_app. split; [|reflexivity].
    apply (nolf_star_one literal_char _ _) in Hb; [exact Hb|]. intros b Hc. revert Hc. cls. lia.
  - apply (nolf_class unquoted_key_char); [|exact Ha]. intros b Hc. revert Hc. cls. lia.
Qed.

Lemma key_nolf t p : key_tok t p -> nolf t.
Proof.
  induction 1 as [t k Ht|t k w1 w2 u ks Ht Hw1 Hw2 _ IH]; [apply (simple_key_nolf _ _ Ht)|].
  repeat (apply nolf_app; split); [apply (simple_key_nolf _ _ Ht)|apply nolf_ws, Hw1|reflexivity|apply nolf_ws, Hw2|exact IH].
Qed.

(* ---- where the line of a key starts ---------------------------------------------------------------------------------- *)
Definition bomlen (s : bytes) : nat := match strip_prefix Document.bom s with Some _ => 3 | None => 0 end.

Fixpoint after_last_lf (l : bytes) (p : nat) (acc : option nat) : option nat :=
  match l with
  | [] => acc
  | b :: tl => after_last_lf tl (S p) (if byte_eqb b x0a then Some (S p) else acc)
  end.
(* the start of the line that holds position ra: after the last LF before ra, or after the byte-order mark *)
Definition lsb (s : bytes) (ra : nat) : nat :=
  match after_last_lf (firstn ra s) 0 None with Some p => p | None => bomlen s end.

Definition lstart (s : bytes) (n : nat) : Prop := n = bomlen s \/ exists A r, s = A ++ [x0a] ++ r /\ n = length A + 1.

Lemma after_last_lf_app l1 : forall l2 p acc,
  after_last_lf (l1 ++ l2) p acc = after_last_lf l2 (p + length l1) (after_last_lf l1 p acc).
Proof.
  induction l1 as [|b l1 IH]; intros l2 p acc; cbn [app after_last_lf length]; [rewrite Nat.add_0_r; reflexivity|].
  rewrite IH. f_equal. lia.
Qed.
Lemma after_last_lf_nolf l : nolf l -> forall p acc, after_last_lf l p acc = acc.
Proof.
  unfold nolf. induction l as [|b l IH]; intros H p acc; [reflexivity|]. cbn [forallb after_last_lf] in *.
  apply andb_true_iff in H as [Hb Hl]. apply negb_true_iff in Hb. rewrite Hb. apply IH, Hl.
Qed.

Lemma lsb_spec s P Y r : s = P ++ Y ++ r -> nolf Y -> lstart s (length P) -> lsb s (length P + length Y) = length P.
Proof.
  intros Es HY Hl. unfold lsb.
  assert (Ef : firstn (length P + length Y) s = P ++ Y).
  { rewrite Es, app_assoc. rewrite <- app_length. apply firstn_app_len. }
  rewrite Ef, after_last_lf_app, (after_last_lf_nolf Y HY).
  destruct Hl as [Hb | (A & r' & EA & Hn)].
  - (* the text before is the byte-order mark, or nothing *)
    assert (HP : nolf P).
    { unfold bomlen in Hb. destruct (strip_prefix Document.bom s) as [r0|] eqn:Q.
      - apply strip_prefix_spec in Q. rewrite Es in Q. destruct P as [|a [|b [|c [|d P']]]]; try (cbn in Hb; lia).
        cbn [app] in Q. injection Q as -> -> -> _. reflexivity.
      - destruct P; [reflexivity|discriminate Hb]. }
    rewrite (after_last_lf_nolf P HP). exact (eq_sym Hb).
  - assert (EP : P = A ++ [x0a]).
    { rewrite Es in EA. assert (L : length P = length (A ++ [x0a])) by (rewrite app_length; cbn [length]; lia).
      assert (EA' : P ++ (Y ++ r) = (A ++ [x0a]) ++ r') by (rewrite <- app_assoc; exact EA).
      apply (app_same_length _ _ _ _ EA' L). }
    rewrite EP, after_last_lf_app. cbn [after_last_lf]. rewrite byte_eqb_refl. rewrite app_length. cbn [length]. f_equal. lia.
Qed.

(* ---- the check on a key/value line of the tree, and what it gives --------------------------------------------------- *)
Definition kline_ok (s : bytes) (ks : list key) (k' : key) : bool :=
  match k_repr k' with
  | Some (RSpanned ra rb) =>
    let X := pre_text s ks k' in
    let jx := N.to_nat ra - length X in
    (length X <=? N.to_nat ra)
    && starts_with (X ++ krepr s k' ++ decor_suffix (k_leaf (tkey s k')) (snd DEFAULT_KEY_DECOR) ++ [x3d]) (skipn jx s)
    && match d_prefix (k_leaf k') with
       | Some (RSpanned p q) => Nat.eqb (N.to_nat q) jx
       | Some REmpty => Nat.eqb (lsb s (N.to_nat ra)) jx
       | _ => false
       end
  | _ => false
  end.

Theorem kline_unique s j0 i0 ja jb ks po k' LS r :
  key_at s j0 ja jb po k' LS r ->
  d_prefix (k_leaf k') = Some (raw_with_span (pos i0, pos j0)) -> (pos i0 = pos j0 -> lstart s (N.to_nat (pos j0))) ->
  Forall (hkey s) ks -> kline_ok s ks k' = true -> pre_text s ks k' = pre_text s po k'.
Proof.
  intros (Hj0 & Rj & ELS & HLS & Erepr & Eja & Hne & Hpo & Hk') Epre Hls Hks Hok.
  set (X := pre_text s ks k') in *. set (Y := pre_text s po k') in *. set (R := krepr s k') in *.
  destruct (pre_shape s ks k' Hks Hk') as (tx & Htx & Etx). destruct (pre_shape s po k' Hpo Hk') as (ty & Hty & Ety). fold X R in Etx. fold Y R in Ety.
  destruct Hj0 as (p & Es & Ep).
  unfold kline_ok in Hok. rewrite Erepr in Hok. fold X R in Hok. rewrite (ELS _) in Hok. cbv zeta in Hok.
  apply andb_true_iff in Hok as [Hok Hanchor]. apply andb_true_iff in Hok as [Hle Hsw]. apply Nat.leb_le in Hle.
  (* the key text starts where the line's key starts *)
  assert (Ejx : N.to_nat (pos ja) - length X = length p).
  { rewrite Epre in Hanchor. unfold raw_with_span in Hanchor. cbn [fst snd] in Hanchor. destruct (pos i0 =? pos j0)%N eqn:Q0.
    - apply N.eqb_eq in Q0. apply Nat.eqb_eq in Hanchor. rewrite <- Hanchor.
      assert (Era : N.to_nat (pos ja) = length p + length Y) by lia. rewrite Era.
      apply (lsb_spec s p Y (R ++ LS ++ [x3d] ++ r)).
      + rewrite Es, Rj, <- !app_assoc. reflexivity.
      + pose proof (key_nolf _ _ Hty) as Hn. rewrite <- Ety in Hn. apply nolf_app in Hn as [Hn _]. exact Hn.
      + specialize (Hls Q0). rewrite Ep, Nat2N.id in Hls. exact Hls.
    - apply Nat.eqb_eq in Hanchor. rewrite <- Hanchor. lia. }
  rewrite Ejx in Hsw. unfold starts_with in Hsw. destruct (strip_prefix _ _) as [r1|] eqn:Q1; [|discriminate]. apply strip_prefix_spec in Q1.
  rewrite Es, skipn_app_len, Rj in Q1.
  assert (E : ty ++ LS ++ [x3d] ++ r = tx ++ LS ++ [x3d] ++ r1).
  { rewrite <- Etx, <- Ety. rewrite <- ?app_assoc in Q1. rewrite <- ?app_assoc. exact Q1. }
  pose proof (key_text_unique _ _ _ _ _ _ _ _ Hty HLS Htx HLS E) as E2. apply app_inv_tail in E2. rewrite <- Etx, <- Ety in E2.
  apply app_inv_tail in E2. symmetry. exact E2.
Qed.
