(* Proofs/EditRefine.v — property C08, the decoded-content half: every applicable operation of
   Model/Edit.v does to the content (`abs`) of the document exactly what Spec/EditSpec.v says.
   One lemma per operation (`*_sim`), one for walking a path (`at_path_sim`), then the step and
   history theorems. *)
From TV Require Import Base.Prelude Spec.Ordered Model.Tree.
From TV Require Import Spec.EditSpec Model.Edit Proofs.ContainersOrder Proofs.EditRefineBase.
From TV Require Import Proofs.KvFacts.
From Coq Require Import Sorting.Permutation Lia.
From TV Require Import Base.BytesFacts.

(** * Induction over value / item / tbl, and over payloads *)
Section TreeInd.
  Variables (Pv : value -> Prop) (Pi : item -> Prop) (Pt : tbl -> Prop).
  Hypothesis Hscalar : forall s r d, Pv (VScalar s r d).
  Hypothesis Harray : forall vals tr c d sp, Forall Pi vals -> Pv (VArray vals tr c d sp).
  Hypothesis Hinline : forall items pre im dt d sp,
      Forall (fun kv => Pi (snd kv)) items -> Pv (VInline items pre im dt d sp).
  Hypothesis Hnone : Pi INone.
  Hypothesis Hvalue : forall v, Pv v -> Pi (IValue v).
  Hypothesis Htable : forall t, Pt t -> Pi (ITable t).
  Hypothesis Haot : forall ts sp, Forall Pt ts -> Pi (IAot ts sp).
  Hypothesis Htbl : forall items d im dt p sp,
      Forall (fun kv => Pi (snd kv)) items -> Pt (Tbl items d im dt p sp).

  Fixpoint value_ind4 (v : value) : Pv v :=
    match v with
    | VScalar s r d => Hscalar s r d
    | VArray vals tr c d sp =>
      Harray vals tr c d sp
             ((fix go (l : list item) : Forall Pi l :=
                 match l with
                 | [] => Forall_nil _
                 | x :: tl => Forall_cons x (item_ind4 x) (go tl)
                 end) vals)
    | VInline items pre im dt d sp =>
      Hinline items pre im dt d sp
              ((fix go (l : kvs) : Forall (fun kv => Pi (snd kv)) l :=
                  match l with
                  | [] => Forall_nil _
                  | kv :: tl =>
                    Forall_cons kv (match kv as kv0 return Pi (snd kv0) with (k, i) => item_ind4 i end) (go tl)
                  end) items)
    end
  with item_ind4 (i : item) : Pi i :=
    match i with
    | INone => Hnone
    | IValue v => Hvalue v (value_ind4 v)
    | ITable t => Htable t (tbl_ind4 t)
    | IAot ts sp =>
      Haot ts sp
           ((fix go (l : list tbl) : Forall Pt l :=
               match l with
               | [] => Forall_nil _
               | x :: tl => Forall_cons x (tbl_ind4 x) (go tl)
               end) ts)
    end
  with tbl_ind4 (t : tbl) : Pt t :=
    match t with
    | Tbl items d im dt p sp =>
      Htbl items d im dt p sp
           ((fix go (l : kvs) : Forall (fun kv => Pi (snd kv)) l :=
               match l with
               | [] => Forall_nil _
               | kv :: tl =>
                 Forall_cons kv (match kv as kv0 return Pi (snd kv0) with (k, i) => item_ind4 i end) (go tl)
               end) items)
    end.
End TreeInd.

(* induction for what is done to a table-like node and to its dotted children of the same kind
   (sort_values, sort_values_by): only those children need the hypothesis *)
Definition dotted_tbl (P : tbl -> Prop) (i : item) : Prop :=
  match i with ITable (Tbl _ _ _ true _ _ as sub) => P sub | _ => True end.
Definition dotted_inline (P : value -> Prop) (i : item) : Prop :=
  match i with IValue (VInline _ _ _ true _ _ as sub) => P sub | _ => True end.

Lemma dotted_ind (Pv : value -> Prop) (Pt : tbl -> Prop) :
  (forall s r d, Pv (VScalar s r d)) ->
  (forall vals tr c d sp, Pv (VArray vals tr c d sp)) ->
  (forall items pre im dt d sp,
     (forall k i, In (k, i) items -> dotted_inline Pv i) -> Pv (VInline items pre im dt d sp)) ->
  (forall items d im dt p sp,
     (forall k i, In (k, i) items -> dotted_tbl Pt i) -> Pt (Tbl items d im dt p sp)) ->
  (forall v, Pv v) /\ (forall t, Pt t).
Proof.
  intros Hs Ha Hi Ht.
  pose (Pi := fun i => match i with IValue v => Pv v | ITable t => Pt t | _ => True end).
  assert (Hi' : forall items pre im dt d sp,
             Forall (fun kv => Pi (snd kv)) items -> Pv (VInline items pre im dt d sp)).
  { intros items pre im dt d sp IH. apply Hi. intros k i Hin. rewrite Forall_forall in IH.
    specialize (IH _ Hin). destruct i as [|[| |? ? ? [|] ? ?]| |]; try exact I. exact IH. }
  assert (Ht' : forall items d im dt p sp,
             Forall (fun kv => Pi (snd kv)) items -> Pt (Tbl items d im dt p sp)).
  { intros items d im dt p sp IH. apply Ht. intros k i Hin. rewrite Forall_forall in IH.
    specialize (IH _ Hin). destruct i as [| |[? ? ? [|] ? ?]|]; try exact I. exact IH. }
  split; [apply (value_ind4 Pv Pi Pt)|apply (tbl_ind4 Pv Pi Pt)]; unfold Pi; auto.
Qed.

Lemma pv_ind2 (P : pv -> Prop) :
  (forall z, P (PVInt z)) -> (forall s, P (PVStr s)) -> (forall b, P (PVBool b)) ->
  (forall l, Forall P l -> P (PVArr l)) ->
  (forall l, Forall (fun kv => P (snd kv)) l -> P (PVInl l)) ->
  forall v, P v.
Proof.
  intros Hi Hs Hb Ha Hm.
  exact (fix rec (v : pv) : P v :=
           match v with
           | PVInt z => Hi z
           | PVStr s => Hs s
           | PVBool b => Hb b
           | PVArr l => Ha l ((fix go (l : list pv) : Forall P l :=
                                 match l with
                                 | [] => Forall_nil _
                                 | x :: tl => Forall_cons x (rec x) (go tl)
                                 end) l)
           | PVInl l => Hm l ((fix go (l : list (bytes * pv)) : Forall (fun kv => P (snd kv)) l :=
                                 match l with
                                 | [] => Forall_nil _
                                 | kv :: tl =>
                                   Forall_cons kv (match kv as kv0 return P (snd kv0) with (k, x) => rec x end) (go tl)
                                 end) l)
           end).
Qed.

(** * Values built through the API *)

Lemma absl_fold_insert (l : list (key * item)) acc :
  absl (fold_left (fun a kv => kv_insert a (fst kv) (snd kv)) l acc)
  = fold_left (fun a kv => e_put (fst kv) (snd kv) a) (map abskv l) (absl acc).
Proof.
  revert acc. induction l as [|[k i] l IH]; intro acc; simpl; [reflexivity|].
  rewrite IH, absl_kv_insert. reflexivity.
Qed.

Lemma build_value_abs v : abs_value (build_value v) = pv_plain v.
Proof.
  induction v as [z|s|b|l IH|l IH] using pv_ind2; try reflexivity.
  - simpl. f_equal. rewrite map_map. apply map_ext_in. intros x Hx.
    rewrite Forall_forall in IH. simpl. apply IH. exact Hx.
  - simpl. f_equal. fold_absl.
    rewrite absl_fold_insert. unfold e_of_list. simpl. f_equal.
    rewrite map_map. apply map_ext_in. intros [k x] Hx. simpl.
    rewrite Forall_forall in IH. f_equal. apply (IH (k, x) Hx).
Qed.

Lemma build_item_abs x : abs_item (build_item x) = ipay_plain x.
Proof. destruct x; simpl; [apply build_value_abs|reflexivity]. Qed.

Lemma value_decorate_abs v p s : abs_value (value_decorate v p s) = abs_value v.
Proof. destruct v; reflexivity. Qed.
Lemma value_set_decor_abs v d : abs_value (value_set_decor v d) = abs_value v.
Proof. destruct v; reflexivity. Qed.
Lemma value_clear_decor_abs v : abs_value (value_clear_decor v) = abs_value v.
Proof. destruct v; reflexivity. Qed.
Lemma value_op_decorate_abs vals v : abs_value (value_op_decorate vals v) = abs_value v.
Proof. destruct vals; apply value_decorate_abs. Qed.

(** * One lemma per operation: what it does at its node *)

Definition sim (f : item -> option item) (g : plain -> plain) : Prop :=
  forall i i', f i = Some i' -> abs_item i' = g (abs_item i).

Lemma op_insert_sim k v : sim (op_insert k v) (on_tab (e_put k (pv_plain v))).
Proof.
  intros i i' H. destruct i as [|[| |items pre im dt d sp]|[items d im dt p sp]|]; simpl in H; try discriminate;
    injection H as <-; simpl; fold_absl;
    rewrite absl_items_insert; simpl; rewrite build_value_abs; reflexivity.
Qed.

Lemma op_insert_item_sim k x : sim (op_insert_item k x) (on_std_tab (e_put k (abs_item x))).
Proof.
  intros i i' H. destruct i as [| |[items d im dt p sp]|]; simpl in H; try discriminate.
  injection H as <-. simpl. fold_absl.
  rewrite absl_items_insert. reflexivity.
Qed.

Lemma op_remove_sim k : sim (op_remove k) (on_tab (e_del k)).
Proof.
  intros i i' H. destruct i as [|[| |items pre im dt d sp]|[items d im dt p sp]|]; simpl in H; try discriminate;
    injection H as <-; simpl; fold_absl;
    rewrite absl_remove, e_del_rec; reflexivity.
Qed.

Lemma op_arr_push_sim v : sim (op_arr_push v) (on_arr false (fun l => l ++ [pv_plain v])).
Proof.
  intros i i' H. destruct i as [|[|vals tr c d sp|]| |]; simpl in H; try discriminate.
  injection H as <-. simpl. rewrite map_app. simpl. rewrite value_op_decorate_abs, build_value_abs. reflexivity.
Qed.

Lemma op_arr_insert_sim n v : sim (op_arr_insert n v) (on_arr false (v_ins n (pv_plain v))).
Proof.
  intros i i' H. destruct i as [|[|vals tr c d sp|]| |]; simpl in H; try discriminate.
  destruct (vec_insert n _ vals) as [vals'|] eqn:E; simpl in H; [|discriminate]. injection H as <-.
  simpl. rewrite (map_vec_insert abs_item _ _ _ _ E). simpl.
  rewrite value_op_decorate_abs, build_value_abs. reflexivity.
Qed.

Lemma op_arr_replace_sim n v : sim (op_arr_replace n v) (on_arr false (v_upd n (fun _ => pv_plain v))).
Proof.
  intros i i' H. destruct i as [|[|vals tr c d sp|]| |]; simpl in H; try discriminate.
  destruct (nth_upd n _ vals) as [vals'|] eqn:E; simpl in H; [|discriminate]. injection H as <-.
  simpl. rewrite v_upd_rec. f_equal.
  eapply map_nth_upd; [exact E|].
  intros x x' Hx. destruct x as [|ov| |]; try discriminate. injection Hx as <-.
  simpl. rewrite value_set_decor_abs, build_value_abs. reflexivity.
Qed.

Lemma op_arr_remove_sim n : sim (op_arr_remove n) (on_arr false (v_del n)).
Proof.
  intros i i' H. destruct i as [|[|vals tr c d sp|]| |]; simpl in H; try discriminate.
  destruct (vec_remove n vals) as [[y vals']|] eqn:E; [|discriminate].
  destruct y; try discriminate. injection H as <-.
  simpl. rewrite v_del_rec. f_equal. eapply map_vec_remove. exact E.
Qed.

Lemma op_aot_push_sim : sim op_aot_push (on_arr true (fun l => l ++ [PTab false false []])).
Proof.
  intros i i' H. destruct i as [| | |ts sp]; simpl in H; try discriminate.
  injection H as <-. simpl. rewrite map_app. reflexivity.
Qed.

Lemma op_aot_remove_sim n : sim (op_aot_remove n) (on_arr true (v_del n)).
Proof.
  intros i i' H. destruct i as [| | |ts sp]; simpl in H; try discriminate.
  destruct (vec_remove n ts) as [[y ts']|] eqn:E; simpl in H; [|discriminate]. injection H as <-.
  simpl. rewrite v_del_rec. f_equal. eapply map_vec_remove. exact E.
Qed.

(* -- fmt: no change of content -- *)
Lemma decorate_items_absl m : absl (decorate_items m) = absl m.
Proof.
  unfold decorate_items, absl. rewrite map_map. apply map_ext. intros [k i].
  destruct i as [|v| |]; try reflexivity. simpl. rewrite value_clear_decor_abs. reflexivity.
Qed.
Lemma decorate_elems_abs first l : map abs_item (decorate_elems first l) = map abs_item l.
Proof.
  revert first. induction l as [|x l IH]; intro first; simpl; [reflexivity|].
  destruct x as [|v| |]; simpl; rewrite IH; try reflexivity.
  rewrite value_decorate_abs. reflexivity.
Qed.
Lemma array_fmt_abs v : abs_value (array_fmt v) = abs_value v.
Proof. destruct v; try reflexivity. simpl. rewrite decorate_elems_abs. reflexivity. Qed.

Lemma op_fmt_sim : sim op_fmt (fun x => x).
Proof.
  intros i i' H. destruct i as [|[|vals tr c d sp|items pre im dt d sp]|[items d im dt p sp]|]; simpl in H; try discriminate;
    injection H as <-.
  - simpl. rewrite decorate_elems_abs. reflexivity.
  - simpl. fold_absl.
    rewrite decorate_items_absl. reflexivity.
  - simpl. fold_absl.
    rewrite decorate_items_absl. reflexivity.
Qed.

(* -- sort_values / sort_values_by: one traversal, two ways of sorting the entries -- *)

(* Both sort the entries of the node and go down into its dotted children of the same kind; the
   reference functions do the same on the plain tree.  `sorts_*` says so for a pair (sort of the
   entries, sort of the node); what is proved of such a pair holds of both calls. *)
Definition tchild_item (tsort : tbl -> tbl) (i : item) : item :=
  match i with ITable (Tbl _ _ _ true _ _ as sub) => ITable (tsort sub) | _ => i end.
Definition vchild_item (vsort : value -> value) (i : item) : item :=
  match i with IValue (VInline _ _ _ true _ _ as sub) => IValue (vsort sub) | _ => i end.
Definition tchild (tsort : tbl -> tbl) (kv : key * item) : key * item :=
  match kv with (k, i) => (k, tchild_item tsort i) end.
Definition vchild (vsort : value -> value) (kv : key * item) : key * item :=
  match kv with (k, i) => (k, vchild_item vsort i) end.
Definition pchild (psort : plain -> plain) (il : bool) (kv : bytes * plain) : bytes * plain :=
  match kv with
  | (k, c) => (k, match c with PTab il' true _ => if Bool.eqb il il' then psort c else c | _ => c end)
  end.

Definition sorts_tbl (srt : kvs -> kvs) (tsort : tbl -> tbl) : Prop :=
  forall items d im dt p sp, tsort (Tbl items d im dt p sp) = Tbl (srt (map (tchild tsort) items)) d im dt p sp.
Definition sorts_inline (srt : kvs -> kvs) (vsort : value -> value) : Prop :=
  forall v, vsort v = match v with
                      | VInline items pre im dt d sp => VInline (srt (map (vchild vsort) items)) pre im dt d sp
                      | _ => v
                      end.
Definition sorts_plain (srt : bool -> entries -> entries) (psort : plain -> plain) : Prop :=
  forall x, psort x = match x with
                      | PTab il d l => PTab il d (srt il (map (pchild psort il) l))
                      | _ => x
                      end.

Lemma sort_values_tbl : sorts_tbl kv_sort_keys tbl_sort_values.
Proof. intros items d im dt p sp. reflexivity. Qed.
Lemma sort_values_inline : sorts_inline kv_sort_keys inline_sort_values.
Proof. intros [| |]; reflexivity. Qed.
Lemma sort_by_tbl cm : sorts_tbl (kv_sort_by (tcmp_le cm)) (tbl_sort_by cm).
Proof. intros items d im dt p sp. reflexivity. Qed.
Lemma sort_by_inline cm : sorts_inline (kv_sort_by (icmp_le cm)) (inline_sort_by cm).
Proof. intros [| |]; reflexivity. Qed.
Lemma spec_sort_plain : sorts_plain (fun _ => e_sort) spec_sort.
Proof. intros [| | |]; reflexivity. Qed.
Lemma spec_sort_by_plain cm : sorts_plain (fun il => stable_sort (scmp_le cm il)) (spec_sort_by cm).
Proof. intros [| | |]; reflexivity. Qed.

(* the two calls at their node: sort_values_by is only defined on maps (Model/Edit.v: tbl_is_map) *)
Definition sort_op (okt : tbl -> bool) (okv : value -> bool) (tsort : tbl -> tbl) (vsort : value -> value)
           (it : item) : option item :=
  match it with
  | ITable t => if okt t then Some (ITable (tsort t)) else None
  | IValue (VInline _ _ _ _ _ _ as v) => if okv v then Some (IValue (vsort v)) else None
  | _ => None
  end.
Lemma op_sort_eq it : op_sort it = sort_op (fun _ => true) (fun _ => true) tbl_sort_values inline_sort_values it.
Proof. destruct it as [|[| |]| |]; reflexivity. Qed.
Lemma op_sort_by_eq cm it :
  op_sort_by cm it = sort_op tbl_is_map inline_is_map (tbl_sort_by cm) (inline_sort_by cm) it.
Proof. destruct it as [|[| |]| |]; reflexivity. Qed.

(* a sort permutes the entries *)
Lemma kv_ins_by_perm le x m : Permutation (kv_ins_by le x m) (x :: m).
Proof.
  induction m as [|y m IH]; simpl; [reflexivity|].
  destruct (le x y); [reflexivity|]. rewrite IH. apply perm_swap.
Qed.
Lemma kv_sort_by_perm le m : Permutation (kv_sort_by le m) m.
Proof. induction m as [|x m IH]; simpl; [reflexivity|]. rewrite kv_ins_by_perm. constructor. exact IH. Qed.
Lemma kv_sort_keys_perm m : Permutation (kv_sort_keys m) m.
Proof. rewrite kv_sort_keys_by. apply kv_sort_by_perm. Qed.

Section SortAbs.
  Variables (tsrt vsrt : kvs -> kvs) (tsort : tbl -> tbl) (vsort : value -> value).
  Variables (psrt : bool -> entries -> entries) (psort : plain -> plain).
  Hypothesis Ht : sorts_tbl tsrt tsort.
  Hypothesis Hv : sorts_inline vsrt vsort.
  Hypothesis Hp : sorts_plain psrt psort.
  Hypothesis tsrt_abs : forall m, absl (tsrt m) = psrt false (absl m).
  Hypothesis vsrt_abs : forall m, absl (vsrt m) = psrt true (absl m).

  Lemma sort_abs :
    (forall v, abs_value (vsort v) = psort (abs_value v)) /\ (forall t, abs_tbl (tsort t) = psort (abs_tbl t)).
  Proof.
    apply dotted_ind.
    - intros s r d. rewrite Hv, Hp. reflexivity.
    - intros vals tr c d sp. rewrite Hv, Hp. reflexivity.
    - intros items pre im dt d sp IH. rewrite Hv, !abs_inline_eq, Hp, vsrt_abs. f_equal. f_equal.
      unfold absl. rewrite !map_map. apply map_ext_in. intros [k i] Hin. specialize (IH k i Hin).
      destruct i as [|[| |items0 pre0 im0 [|] d0 sp0]|[items0 d0 im0 [|] p0 sp0]|]; try reflexivity.
      simpl. f_equal. exact IH.
    - intros items d im dt p sp IH. rewrite Ht, !abs_tbl_eq, Hp, tsrt_abs. f_equal. f_equal.
      unfold absl. rewrite !map_map. apply map_ext_in. intros [k i] Hin. specialize (IH k i Hin).
      destruct i as [|[| |items0 pre0 im0 [|] d0 sp0]|[items0 d0 im0 [|] p0 sp0]|]; try reflexivity.
      simpl. f_equal. exact IH.
  Qed.

  Lemma sort_op_sim okt okv : sim (sort_op okt okv tsort vsort) psort.
  Proof.
    intros i i' H. destruct i as [|[| |items pre im dt d sp]|t|]; simpl in H; try discriminate.
    - destruct (okv _); [|discriminate]. injection H as <-. apply (proj1 sort_abs).
    - destruct (okt t); [|discriminate]. injection H as <-. apply (proj2 sort_abs).
  Qed.
End SortAbs.

Lemma op_sort_sim : sim op_sort spec_sort.
Proof.
  intros i i' H. rewrite op_sort_eq in H. revert i i' H.
  exact (sort_op_sim _ _ _ _ _ _ sort_values_tbl sort_values_inline spec_sort_plain absl_sort_keys absl_sort_keys _ _).
Qed.

Lemma op_sort_by_sim cm : sim (op_sort_by cm) (spec_sort_by cm).
Proof.
  intros i i' H. rewrite op_sort_by_eq in H. revert i i' H.
  exact (sort_op_sim _ _ _ _ _ _ (sort_by_tbl cm) (sort_by_inline cm) (spec_sort_by_plain cm)
                     (fun m => absl_sort_by _ _ m (tcmp_le_abs cm)) (fun m => absl_sort_by _ _ m (icmp_le_abs cm)) _ _).
Qed.

(* -- conversions -- *)
Lemma make_value_abs :
  (forall i, abs_item (make_value i) = spec_make_value (abs_item i)) /\
  (forall t, abs_value (tbl_into_inline t) = spec_make_value (abs_tbl t)).
Proof.
  pose (Pi := fun i => abs_item (make_value i) = spec_make_value (abs_item i)).
  pose (Pt := fun t => abs_value (tbl_into_inline t) = spec_make_value (abs_tbl t)).
  pose (Pv := fun v : value => spec_make_value (abs_value v) = abs_value v).
  assert (Hv : forall v, Pv v) by (intros [| |]; reflexivity).
  assert (Htb : forall items d im dt p sp,
             Forall (fun kv => Pi (snd kv)) items -> Pt (Tbl items d im dt p sp)).
  { intros items d im dt p sp IH. unfold Pt. simpl tbl_into_inline. unfold inline_with_pairs_fmt.
    rewrite abs_inline_eq, decorate_items_absl, abs_tbl_eq. simpl. f_equal.
    unfold absl. rewrite !map_map. apply map_ext_in. intros [k i] Hin.
    rewrite Forall_forall in IH. specialize (IH _ Hin). simpl in *. rewrite IH. reflexivity. }
  assert (Hi : forall i, Pi i).
  { apply (item_ind4 Pv Pi Pt); unfold Pv, Pi; try reflexivity; try (intros; apply Hv).
    - intros v _. simpl. symmetry. apply Hv.
    - intros t IH. exact IH.
    - intros ts sp IH. cbn [make_value abs_item]. unfold array_with_vec_fmt. rewrite array_fmt_abs. simpl. f_equal.
      rewrite !map_map. apply map_ext_in. intros t Hin. rewrite Forall_forall in IH. apply (IH _ Hin).
    - exact Htb. }
  split; [exact Hi|].
  intros [items d im dt p sp]. apply Htb. rewrite Forall_forall. intros kv _. apply Hi.
Qed.

Lemma into_table_slot_abs i : abs_item (into_table_slot i) = spec_into_table (abs_item i).
Proof.
  destruct i as [|[s r d|vals tr c d sp|items pre im dt d sp]|[items d im dt p sp]|ts sp]; try reflexivity.
  simpl. fold_absl.
  rewrite decorate_items_absl. reflexivity.
Qed.

Lemma is_inline_item_abs i : is_inline_tab (abs_item i) = is_inline_item i.
Proof. destruct i as [|[| |]|[? ? ? ? ? ?]|]; reflexivity. Qed.

Lemma into_aot_elems vals :
  forallb is_inline_item vals = true ->
  map abs_tbl (flat_map (fun e => match e with
                                  | IValue (VInline items _ _ _ _ _) => [inline_into_table items]
                                  | _ => []
                                  end) vals)
  = map spec_into_table (map abs_item vals).
Proof.
  induction vals as [|x vals IH]; intro H; [reflexivity|].
  simpl in H. apply andb_true_iff in H as [Hx Hr].
  destruct x as [|[| |items pre im dt d sp]| |]; try discriminate.
  simpl. rewrite (IH Hr). f_equal.
  fold_absl.
  rewrite decorate_items_absl. reflexivity.
Qed.

Lemma forallb_inline_abs l : forallb is_inline_tab (map abs_item l) = forallb is_inline_item l.
Proof. induction l as [|y l IH]; simpl; [reflexivity|]. rewrite is_inline_item_abs, IH. reflexivity. Qed.

Lemma into_aot_slot_abs i : abs_item (into_aot_slot i) = spec_into_aot (abs_item i).
Proof.
  destruct i as [|[s r d|vals tr c d sp|items pre im dt d sp]|[items d im dt p sp]|ts sp]; try reflexivity.
  destruct vals as [|x vals]; [reflexivity|].
  unfold into_aot_slot. cbn [abs_item abs_value]. unfold spec_into_aot.
  remember (x :: vals) as l eqn:El.
  rewrite forallb_inline_abs.
  assert (Hm : map abs_item l = abs_item x :: map abs_item vals) by (rewrite El; reflexivity).
  rewrite Hm at 1.
  destruct (forallb is_inline_item l) eqn:F.
  - cbn [abs_item]. rewrite (into_aot_elems l F). rewrite El. reflexivity.
  - rewrite El. reflexivity.
Qed.

Lemma op_slot_sim k conv g :
  (forall i, abs_item (conv i) = g (abs_item i)) ->
  sim (op_slot k (fun i => Some (conv i))) (on_std_tab (e_upd k g)).
Proof.
  intros Hc i i' H. destruct i as [| |[items d im dt p sp]|]; simpl in H; try discriminate.
  destruct (kv_upd k _ items) as [items'|] eqn:E; simpl in H; [|discriminate]. injection H as <-.
  simpl. fold_absl.
  rewrite e_upd_rec. f_equal.
  eapply absl_kv_upd; [exact E|].
  intros x x' Hx. cbv beta in Hx. destruct (item_is_none x); [discriminate|]. injection Hx as <-. apply Hc.
Qed.

(* -- IndexMut -- *)
Lemma entry_or_none_single k : entry_or_none [(key_new k, INone)] k = ([(key_new k, INone)], INone).
Proof. unfold entry_or_none, kv_purge. simpl. rewrite ?bytes_eqb_refl. simpl. rewrite ?bytes_eqb_refl. reflexivity. Qed.

(* one step of the walk, by the kind of node it meets *)
Lemma iset_none k ks x :
  iset (k :: ks) x INone
  = optmap (fun slot' => IValue (VInline [(key_new k, slot')] REmpty false false decor_default None)) (iset ks x INone).
Proof.
  cbn [iset]. rewrite entry_or_none_single. destruct (iset ks x INone); simpl; [rewrite bytes_eqb_refl|]; reflexivity.
Qed.
Lemma iset_inline k ks x items pre im dt d sp :
  iset (k :: ks) x (IValue (VInline items pre im dt d sp))
  = optmap (fun slot' => IValue (VInline (kv_set (fst (entry_or_none items k)) k slot') pre im dt d sp))
           (iset ks x (snd (entry_or_none items k))).
Proof. cbn [iset]. destruct (entry_or_none items k). reflexivity. Qed.
Lemma iset_tbl k ks x items d im dt p sp :
  iset (k :: ks) x (ITable (Tbl items d im dt p sp))
  = optmap (fun slot' => ITable (Tbl (kv_set (fst (entry_or_none items k)) k slot') d im dt p sp))
           (iset ks x (snd (entry_or_none items k))).
Proof. cbn [iset]. destruct (entry_or_none items k). reflexivity. Qed.

Lemma iset_entries items k slot' x ks :
  (forall it it', iset ks x it = Some it' -> abs_item it' = spec_iset ks (abs_item x) (abs_item it)) ->
  iset ks x (snd (entry_or_none items k)) = Some slot' ->
  absl (kv_set (fst (entry_or_none items k)) k slot')
  = e_put k (spec_iset ks (abs_item x)
                       (match e_get k (e_forget k (absl items)) with Some c => c | None => PNone end)) (absl items).
Proof.
  intros IH H. unfold entry_or_none in *. rewrite e_put_rec, e_get_rec, e_forget_rec, <- absl_purge, absl_get.
  destruct (kv_get (kv_purge items k) k) as [[k' i]|] eqn:G; simpl in *.
  - rewrite absl_set. rewrite (IH _ _ H). reflexivity.
  - rewrite (kv_set_push_none _ (key_new k) _ _ G), absl_push. simpl. rewrite (IH _ _ H). reflexivity.
Qed.

Lemma iset_sim ks x : forall it it',
  iset ks x it = Some it' -> abs_item it' = spec_iset ks (abs_item x) (abs_item it).
Proof.
  induction ks as [|k ks IH]; intros it it' H.
  - injection H as <-. reflexivity.
  - destruct it as [|[s r d|vals tr c d sp|items pre im dt d sp]|[items d im dt p sp]|ts sp]; try discriminate.
    + (* Item::None: becomes an inline table holding the placeholder *)
      rewrite iset_none in H.
      destruct (iset ks x INone) as [slot'|] eqn:E; simpl in H; [|discriminate]. injection H as <-.
      simpl. rewrite (IH _ _ E). reflexivity.
    + rewrite iset_inline in H.
      destruct (iset ks x _) as [slot'|] eqn:E; simpl in H; [|discriminate]. injection H as <-.
      simpl. fold_absl. f_equal. exact (iset_entries _ _ _ _ _ IH E).
    + rewrite iset_tbl in H.
      destruct (iset ks x _) as [slot'|] eqn:E; simpl in H; [|discriminate]. injection H as <-.
      simpl. fold_absl. f_equal. exact (iset_entries _ _ _ _ _ IH E).
Qed.

(** * Walking the path *)

Lemma at_path_sim p f g : sim f g -> sim (at_path p f) (spec_at p g).
Proof.
  intro Hf. induction p as [|s p IH]; [exact Hf|].
  intros it it' H. destruct s as [k|n]; simpl in H.
  - destruct it as [|[s r d|vals tr c d sp|items pre im dt d sp]|[items d im dt pos sp]|ts sp]; try discriminate.
    + destruct (kv_upd k _ items) as [items'|] eqn:E; simpl in H; [|discriminate]. injection H as <-.
      simpl. fold_absl.
      rewrite e_upd_rec. f_equal. eapply absl_kv_upd; [exact E|].
      intros x x' Hx. cbv beta in Hx. destruct x as [|v| |]; try discriminate.
      destruct (at_path p f (IValue v)) as [[|v'| |]|] eqn:A; try discriminate.
      injection Hx as <-. apply (IH _ _ A).
    + destruct (kv_upd k _ items) as [items'|] eqn:E; simpl in H; [|discriminate]. injection H as <-.
      simpl. fold_absl.
      rewrite e_upd_rec. f_equal. eapply absl_kv_upd; [exact E|].
      intros x x' Hx. cbv beta in Hx. destruct (item_is_none x); [discriminate|]. apply (IH _ _ Hx).
  - destruct it as [|[s r d|vals tr c d sp|items pre im dt d sp]|[items d im dt pos sp]|ts sp]; try discriminate.
    + destruct (nth_upd n _ vals) as [vals'|] eqn:E; simpl in H; [|discriminate]. injection H as <-.
      simpl. rewrite v_upd_rec. f_equal. eapply map_nth_upd; [exact E|].
      intros x x' Hx. cbv beta in Hx. destruct x as [|v| |]; try discriminate.
      destruct (at_path p f (IValue v)) as [[|v'| |]|] eqn:A; try discriminate.
      injection Hx as <-. apply (IH _ _ A).
    + destruct (nth_upd n _ ts) as [ts'|] eqn:E; simpl in H; [|discriminate]. injection H as <-.
      simpl. rewrite v_upd_rec. f_equal. eapply map_nth_upd; [exact E|].
      intros x x' Hx. cbv beta in Hx.
      destruct (at_path p f (ITable x)) as [[| |t'|]|] eqn:A; simpl in Hx; try discriminate.
      injection Hx as <-. apply (IH _ _ A).
Qed.

Lemma spec_at_id p t : spec_at p (fun x => x) t = t.
Proof.
  revert t. induction p as [|s p IH]; intro t; [reflexivity|].
  destruct s as [k|n]; simpl.
  - destruct t as [| | |il d l]; try reflexivity. f_equal.
    rewrite e_upd_rec. rewrite (r_upd_ext k _ (fun x => x) l IH). apply r_upd_id.
  - destruct t as [| |a l|]; try reflexivity. f_equal.
    rewrite v_upd_rec.
    assert (E : forall (n : nat) (l : list plain), rv_upd n (spec_at p (fun x => x)) l = rv_upd n (fun x => x) l).
    { clear -IH. intros n l. revert n. induction l as [|x l IHl]; intros [|n]; simpl; try reflexivity.
      - rewrite IH. reflexivity.
      - rewrite IHl. reflexivity. }
    rewrite E. apply rv_upd_id.
Qed.

(** * The step *)

Lemma as_tbl_abs o r : as_tbl o = Some r -> o = Some (ITable r).
Proof. destruct o as [[| |t|]|]; simpl; intro H; try discriminate. injection H as <-. reflexivity. Qed.

Theorem step_content : forall t o t', apply o t = Some t' -> abs t' = spec_apply o (abs t).
Proof.
  intros t o t' H. unfold apply in H.
  destruct (op_fun o) as [p f] eqn:EO. apply as_tbl_abs in H.
  change (abs t') with (abs_item (ITable t')). change (abs t) with (abs_item (ITable t)).
  destruct o as [q k v|q k|q k|q k|q v|q i v|q i v|q i|q|q i|q|q|q k|q k|q k|ks x|q cm];
    simpl in EO; injection EO as <- <-; simpl spec_apply.
  - exact (at_path_sim _ _ _ (op_insert_sim k v) _ _ H).
  - exact (at_path_sim _ _ _ (op_insert_item_sim k (ITable tbl_new)) _ _ H).
  - exact (at_path_sim _ _ _ (op_insert_item_sim k (IAot [tbl_new] None)) _ _ H).
  - exact (at_path_sim _ _ _ (op_remove_sim k) _ _ H).
  - exact (at_path_sim _ _ _ (op_arr_push_sim v) _ _ H).
  - exact (at_path_sim _ _ _ (op_arr_insert_sim i v) _ _ H).
  - exact (at_path_sim _ _ _ (op_arr_replace_sim i v) _ _ H).
  - exact (at_path_sim _ _ _ (op_arr_remove_sim i) _ _ H).
  - exact (at_path_sim _ _ _ op_aot_push_sim _ _ H).
  - exact (at_path_sim _ _ _ (op_aot_remove_sim i) _ _ H).
  - exact (at_path_sim _ _ _ op_sort_sim _ _ H).
  - rewrite <- (spec_at_id q (abs_tbl t)). exact (at_path_sim _ _ _ op_fmt_sim _ _ H).
  - exact (at_path_sim _ _ _ (op_slot_sim k make_value _ (proj1 make_value_abs)) _ _ H).
  - exact (at_path_sim _ _ _ (op_slot_sim k into_table_slot _ into_table_slot_abs) _ _ H).
  - exact (at_path_sim _ _ _ (op_slot_sim k into_aot_slot _ into_aot_slot_abs) _ _ H).
  - simpl in H. destruct ks as [|k ks]; [discriminate|].
    rewrite <- build_item_abs. exact (iset_sim _ _ _ _ H).
  - exact (at_path_sim _ _ _ (op_sort_by_sim cm) _ _ H).
Qed.

(** * Histories *)

(* the operations of a history that were applicable when their turn came *)
Fixpoint applied_ops (ops : list op) (t : tbl) : list op :=
  match ops with
  | [] => []
  | o :: tl => match apply o t with
               | Some t' => o :: applied_ops tl t'
               | None => applied_ops tl t
               end
  end.

Definition spec_apply_all (ops : list op) (x : plain) : plain := fold_left (fun x o => spec_apply o x) ops x.

Theorem history_content : forall ops t,
  abs (apply_all ops t) = spec_apply_all (applied_ops ops t) (abs t).
Proof.
  induction ops as [|o ops IH]; intro t; [reflexivity|].
  unfold apply_all in *. simpl. unfold apply_skip at 2.
  destruct (apply o t) as [t'|] eqn:E.
  - rewrite IH. unfold spec_apply_all. simpl. rewrite (step_content _ _ _ E). reflexivity.
  - apply IH.
Qed.

(* all operations applicable: the plain fold *)
Fixpoint apply_seq (ops : list op) (t : tbl) : option tbl :=
  match ops with
  | [] => Some t
  | o :: tl => match apply o t with Some t' => apply_seq tl t' | None => None end
  end.

Theorem history_content_all : forall ops t t',
  apply_seq ops t = Some t' -> abs t' = spec_apply_all ops (abs t).
Proof.
  induction ops as [|o ops IH]; intros t t' H; simpl in H.
  - injection H as <-. reflexivity.
  - destruct (apply o t) as [t1|] eqn:E; [|discriminate].
    unfold spec_apply_all. simpl. rewrite <- (step_content _ _ _ E). apply IH. exact H.
Qed.

(** * Order: `abs` keeps the order of the tree, and the reference functions put entries
      where the API documents them *)

Definition tab_keys (x : plain) : list bytes := match x with PTab _ _ l => map fst l | _ => [] end.

Lemma abs_keeps_order t : tab_keys (abs t) = map (fun kv => k_key (fst kv)) (t_items t).
Proof.
  destruct t as [items d im dt p sp]. simpl. rewrite map_map. apply map_ext. intros [k i]. reflexivity.
Qed.

(* the keys of a list with the first occurrence of k removed *)
Fixpoint del_first (k : bytes) (l : list bytes) : list bytes :=
  match l with
  | [] => []
  | k' :: tl => if bytes_eqb k' k then tl else k' :: del_first k tl
  end.

Lemma r_upd_keys k g l : map fst (r_upd k g l) = map fst l.
Proof.
  induction l as [|[k' v] l IH]; simpl; [reflexivity|].
  destruct (bytes_eqb k' k); simpl; [reflexivity|]. rewrite IH. reflexivity.
Qed.

(* insert: an existing key keeps its position, a new key goes last; nothing else moves *)
Lemma e_put0_keys k x l :
  map fst (e_put0 k x l) = match e_get k l with Some _ => map fst l | None => map fst l ++ [k] end.
Proof.
  rewrite e_put0_rec, e_get_rec. destruct (r_get k l).
  - apply r_upd_keys.
  - rewrite map_app. reflexivity.
Qed.

Lemma r_get_upd_same k g l : r_get k (r_upd k g l) = optmap g (r_get k l).
Proof.
  induction l as [|[k' v] l IH]; simpl; [reflexivity|].
  destruct (bytes_eqb k' k) eqn:E; simpl; rewrite E; [reflexivity|exact IH].
Qed.
Lemma r_get_upd_other k k2 g l : bytes_eqb k2 k = false -> r_get k2 (r_upd k g l) = r_get k2 l.
Proof.
  intro N. induction l as [|[k' v] l IH]; simpl; [reflexivity|].
  destruct (bytes_eqb k' k) eqn:E; simpl.
  - apply bytes_eqb_eq in E. subst k'. rewrite (bytes_eqb_sym k k2), N. reflexivity.
  - destruct (bytes_eqb k' k2); [reflexivity|exact IH].
Qed.
Lemma r_get_app_other k k2 x l : bytes_eqb k2 k = false -> r_get k2 (l ++ [(k, x)]) = r_get k2 l.
Proof.
  intro N. induction l as [|[k' v] l IH]; simpl.
  - rewrite (bytes_eqb_sym k k2), N. reflexivity.
  - destruct (bytes_eqb k' k2); [reflexivity|exact IH].
Qed.
Lemma r_get_app_same k x l : r_get k l = None -> r_get k (l ++ [(k, x)]) = Some x.
Proof.
  induction l as [|[k' v] l IH]; simpl; intro H.
  - rewrite bytes_eqb_refl. reflexivity.
  - destruct (bytes_eqb k' k); [discriminate|]. apply IH. exact H.
Qed.

Lemma e_put0_get_same k x l : e_get k (e_put0 k x l) = Some x.
Proof.
  rewrite e_get_rec, e_put0_rec. destruct (r_get k l) eqn:G.
  - rewrite r_get_upd_same, G. reflexivity.
  - apply r_get_app_same. exact G.
Qed.
Lemma e_put0_get_other k k2 x l : bytes_eqb k2 k = false -> e_get k2 (e_put0 k x l) = e_get k2 l.
Proof.
  intro N. rewrite !e_get_rec, e_put0_rec. destruct (r_get k l).
  - apply r_get_upd_other. exact N.
  - apply r_get_app_other. exact N.
Qed.

(* a key that only holds a placeholder counts as new; otherwise nothing is forgotten *)
Lemma e_put_placeholder k x l : e_get k l = Some PNone -> e_put k x l = e_put0 k x (e_del k l).
Proof. intro H. unfold e_put, e_forget. rewrite H. reflexivity. Qed.
Lemma e_put_plain k x l : e_get k l <> Some PNone -> e_put k x l = e_put0 k x l.
Proof. intro H. unfold e_put, e_forget. destruct (e_get k l) as [[| | |]|]; congruence. Qed.

Lemma e_put_keys k x l : e_get k l <> Some PNone ->
  map fst (e_put k x l) = match e_get k l with Some _ => map fst l | None => map fst l ++ [k] end.
Proof. intro H. rewrite (e_put_plain k x l H). apply e_put0_keys. Qed.
Lemma e_put_get_same k x l : e_get k (e_put k x l) = Some x.
Proof. unfold e_put. apply e_put0_get_same. Qed.
Lemma e_put_get_other k k2 x l : e_get k l <> Some PNone ->
  bytes_eqb k2 k = false -> e_get k2 (e_put k x l) = e_get k2 l.
Proof. intros H N. rewrite (e_put_plain k x l H). apply e_put0_get_other. exact N. Qed.

(* remove: the other entries keep their order and values *)
Lemma e_del_keys k l : map fst (e_del k l) = del_first k (map fst l).
Proof.
  rewrite e_del_rec. induction l as [|[k' v] l IH]; simpl; [reflexivity|].
  destruct (bytes_eqb k' k); simpl; [reflexivity|]. rewrite IH. reflexivity.
Qed.
Lemma e_del_get_other k k2 l : bytes_eqb k2 k = false -> e_get k2 (e_del k l) = e_get k2 l.
Proof.
  intro N. rewrite !e_get_rec, e_del_rec. induction l as [|[k' v] l IH]; simpl; [reflexivity|].
  destruct (bytes_eqb k' k) eqn:E; simpl.
  - apply bytes_eqb_eq in E. subst k'. rewrite (bytes_eqb_sym k k2), N. reflexivity.
  - destruct (bytes_eqb k' k2); [reflexivity|exact IH].
Qed.

(* sort: a permutation of the entries, in ascending key order *)
Lemma kle_trans a b c : kle a b = true -> kle b c = true -> kle a c = true.
Proof. unfold kle. apply key_leb_trans. Qed.
Lemma kle_total a b : kle a b = false -> kle b a = true.
Proof. unfold kle. apply key_leb_total. Qed.

Lemma e_sort_perm l : Permutation (e_sort l) l.
Proof. apply stable_sort_perm. Qed.
Lemma e_sort_sorted l : sorted_by (fun a b => key_leb (fst a) (fst b) = true) (e_sort l).
Proof. apply (stable_sort_sorted kle kle_trans kle_total). Qed.

(* sort_by: a permutation of the entries, in the comparator's order, entries the comparator ties keep their order *)
Lemma rank_le_trans a b c : rank_le a b = true -> rank_le b c = true -> rank_le a c = true.
Proof.
  unfold rank_le. destruct a as [a1 a2], b as [b1 b2], c as [c1 c2]. cbn [fst snd]. intros H1 H2.
  apply orb_true_iff in H1. apply orb_true_iff in H2. apply orb_true_iff.
  rewrite !andb_true_iff, !Nat.ltb_lt, !Nat.eqb_eq, !Z.leb_le in *. lia.
Qed.
Lemma rank_le_total a b : rank_le a b = false -> rank_le b a = true.
Proof.
  unfold rank_le. destruct a as [a1 a2], b as [b1 b2]. cbn [fst snd]. intro H.
  apply orb_false_iff in H as [H1 H2]. apply Nat.ltb_ge in H1. apply orb_true_iff.
  rewrite andb_true_iff, Nat.ltb_lt, Nat.eqb_eq, Z.leb_le.
  apply andb_false_iff in H2. rewrite Nat.eqb_neq, Z.leb_gt in H2. lia.
Qed.
Lemma scmp_base_trans cm a b c : scmp_base cm a b = true -> scmp_base cm b c = true -> scmp_base cm a c = true.
Proof.
  destruct cm; unfold scmp_base.
  - intros H1 H2. exact (key_leb_trans _ _ _ H2 H1).
  - apply rank_le_trans.
Qed.
Lemma scmp_base_total cm a b : scmp_base cm a b = false -> scmp_base cm b a = true.
Proof. destruct cm; unfold scmp_base; [apply key_leb_total|apply rank_le_total]. Qed.
Lemma scmp_le_trans cm il a b c : scmp_le cm il a b = true -> scmp_le cm il b c = true -> scmp_le cm il a c = true.
Proof.
  unfold scmp_le. destruct il; [|apply scmp_base_trans].
  destruct (is_val (snd a)), (is_val (snd b)), (is_val (snd c)); try discriminate; auto. apply scmp_base_trans.
Qed.
Lemma scmp_le_total cm il a b : scmp_le cm il a b = false -> scmp_le cm il b a = true.
Proof.
  unfold scmp_le. destruct il; [|apply scmp_base_total].
  destruct (is_val (snd a)), (is_val (snd b)); try discriminate; auto. apply scmp_base_total.
Qed.

Lemma sort_by_perm cm il l : Permutation (stable_sort (scmp_le cm il) l) l.
Proof. apply stable_sort_perm. Qed.
Lemma sort_by_sorted cm il l : sorted_by (fun a b => scmp_le cm il a b = true) (stable_sort (scmp_le cm il) l).
Proof. apply (stable_sort_sorted (scmp_le cm il) (scmp_le_trans cm il) (scmp_le_total cm il)). Qed.

(* stability, for any "less or equal" test: a class of entries that are pairwise tied keeps its order *)
Lemma sorted_insert_filter {A} (le : A -> A -> bool) (p : A -> bool) x l :
  (forall y, In y l -> p x = true -> p y = true -> le x y = true) ->
  filter p (sorted_insert le x l) = filter p (x :: l).
Proof.
  induction l as [|y l IH]; intro H; [reflexivity|]. cbn [sorted_insert].
  destruct (le x y) eqn:E; [reflexivity|].
  cbn [filter]. rewrite IH by (intros z Hz; apply H; right; exact Hz). cbn [filter].
  destruct (p x) eqn:Px, (p y) eqn:Py; try reflexivity.
  rewrite (H y (or_introl eq_refl) eq_refl Py) in E. discriminate.
Qed.
Lemma stable_sort_stable {A} (le : A -> A -> bool) (p : A -> bool) l :
  (forall a b, p a = true -> p b = true -> le a b = true) ->
  filter p (stable_sort le l) = filter p l.
Proof.
  intro H. induction l as [|x l IH]; [reflexivity|]. cbn [stable_sort fold_right].
  change (fold_right (sorted_insert le) [] l) with (stable_sort le l).
  rewrite sorted_insert_filter by (intros; apply H; assumption). cbn [filter]. rewrite IH. reflexivity.
Qed.

(* vectors *)
Lemma v_ins_spec {A} i (x : A) l : i <= length l ->
  firstn i (v_ins i x l) = firstn i l /\ nth_error (v_ins i x l) i = Some x /\ skipn (S i) (v_ins i x l) = skipn i l.
Proof.
  intro H. unfold v_ins.
  assert (L : length (firstn i l) = i) by (apply firstn_length_le; exact H).
  repeat split.
  - rewrite firstn_app, L, Nat.sub_diag. simpl. rewrite app_nil_r.
    rewrite firstn_firstn, Nat.min_id. reflexivity.
  - rewrite nth_error_app2; rewrite L; [|apply Nat.le_refl]. rewrite Nat.sub_diag. reflexivity.
  - replace (S i) with (length (firstn i l ++ [x])) by (rewrite app_length, L; simpl; lia).
    change (firstn i l ++ x :: skipn i l) with (firstn i l ++ [x] ++ skipn i l).
    rewrite app_assoc, skipn_app, skipn_all, Nat.sub_diag. reflexivity.
Qed.
