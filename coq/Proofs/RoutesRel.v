(* Proofs/RoutesRel.v — two deserializers run side by side.  `rr P1 P2 R r1 r2`: the results are related by R when
   both succeed; P1 is what is claimed when only the left one succeeds, P2 when only the right one does.
     lockstep = rr False False   both fail or both succeed          (C14: Spanned<T> against T)
     follows  = rr False True    where the left succeeds so does the right   (C13: the same tree up to NaN payloads)
     agree    = rr True True     nothing is said unless both succeed (C13: toml_edit's deserializer against toml::Value's)
   The relation passes through rbind / rmap / mapM and through the visitors of Model/De.v, whatever P1 and P2 are. *)
From TV Require Import Base.Prelude Spec.SerdeData Model.De.
From TV Require Import Base.ListFacts.

Lemma fold_left_rel {A B X Y} (R : A -> B -> Prop) (S : X -> Y -> Prop) (f : A -> X -> A) (g : B -> Y -> B) :
  (forall a b x y, R a b -> S x y -> R (f a x) (g b y)) ->
  forall l l', Forall2 S l l' -> forall a b, R a b -> R (fold_left f l a) (fold_left g l' b).
Proof. intros H l l' F. induction F as [|x y l l' Hxy _ IH]; intros a b Hab; simpl; [exact Hab|]. apply IH, H; assumption. Qed.

(* find_name: either the continuation on the first entry of that name, or the default *)
Lemma find_name_cases {A R} (f : nat -> A -> R) (d : R) k (l : list (bytes * A)) : forall i,
  (exists j a, nth_error l j = Some (k, a) /\ find_name f d k l i = f (i + j) a) \/ find_name f d k l i = d.
Proof.
  induction l as [|[n a] l IH]; intro i; simpl; [right; reflexivity|].
  destruct (bytes_eqb n k) eqn:E.
  - apply bytes_eqb_eq in E. subst n. left. exists 0, a. rewrite Nat.add_0_r. split; reflexivity.
  - destruct (IH (S i)) as [(j & a' & Hn & H)|H]; [|right; exact H]. left. exists (S j), a'. split; [exact Hn|].
    rewrite H. f_equal. lia.
Qed.

Section Rel.
  Variables P1 P2 : Prop.

  Definition rr {A B} (R : A -> B -> Prop) (r1 : result A) (r2 : result B) : Prop :=
    match r1, r2 with
    | Ok a, Ok b => R a b
    | Err _, Err _ => True
    | Ok _, Err _ => P1
    | Err _, Ok _ => P2
    end.

  Lemma rr_rbind {A B A' B'} (R : A -> B -> Prop) (S : A' -> B' -> Prop) r1 r2 k1 k2 :
    rr R r1 r2 -> (forall a b, R a b -> rr S (k1 a) (k2 b)) -> rr S (rbind r1 k1) (rbind r2 k2).
  Proof.
    destruct r1 as [a|e], r2 as [b|e']; simpl; intros H1 H2; auto.
    - destruct (k1 a); [exact H1|exact I].
    - destruct (k2 b); [exact H1|exact I].
  Qed.

  Lemma rr_rmap {A B A' B'} (R : A -> B -> Prop) (S : A' -> B' -> Prop) f g r1 r2 :
    rr R r1 r2 -> (forall a b, R a b -> S (f a) (g b)) -> rr S (rmap f r1) (rmap g r2).
  Proof. destruct r1, r2; simpl; auto. Qed.

  Lemma rr_refl {A} (R : A -> A -> Prop) r : (forall a, R a a) -> rr R r r.
  Proof. intro H. destruct r; [apply H|exact I]. Qed.

  Lemma rr_mapM {A B A' B'} (R : A' -> B' -> Prop) (f : A -> result A') (g : B -> result B') l l' :
    Forall2 (fun x y => rr R (f x) (g y)) l l' -> rr (Forall2 R) (mapM f l) (mapM g l').
  Proof.
    induction 1 as [|x y l l' Hxy _ IH]; simpl; [constructor|].
    apply (rr_rbind R); [exact Hxy|]. intros a b Hab.
    apply (rr_rbind (Forall2 R)); [exact IH|]. intros m m' Hm. simpl. constructor; assumption.
  Qed.

  Lemma rr_mapM_map {A B A' B'} (R : A' -> B' -> Prop) (f : A -> result A') (g : B -> result B') (h : A -> B) l :
    Forall (fun a => rr R (f a) (g (h a))) l -> rr (Forall2 R) (mapM f l) (mapM g (map h l)).
  Proof. intro H. apply rr_mapM. induction H; constructor; assumption. Qed.

  Lemma rr_find_name {A X Y} (R : X -> Y -> Prop) (f : nat -> A -> result X) (g : nat -> A -> result Y) e e' k l :
    Forall (fun nv => forall i, rr R (f i (snd nv)) (g i (snd nv))) l ->
    forall j, rr R (find_name f (Err e) k l j) (find_name g (Err e') k l j).
  Proof.
    induction 1 as [|[n a] l Ha _ IH]; intro j; simpl; [exact I|]. destruct (bytes_eqb n k); [apply Ha|apply IH].
  Qed.

  (* ---- the visitors of Model/De.v over two deserializers d1, d2 and related trees ---- *)
  Section Visitors.
    Variables d1 d2 : ty -> tomlval -> result sval.
    Variable Rx : tomlval -> tomlval -> Prop.
    Variable R : sval -> sval -> Prop.
    Definition related_at (t : ty) : Prop := forall x y, Rx x y -> rr R (d1 t x) (d2 t y).

    Lemma rr_seq t xs ys : related_at t -> Forall2 Rx xs ys -> rr (Forall2 R) (mapM (d1 t) xs) (mapM (d2 t) ys).
    Proof. intros Ht F. apply rr_mapM. eapply Forall2_impl; [|exact F]. exact Ht. Qed.

    (* visit_seq: the components read, and what is left of the two sequences *)
    Definition pos_rel (r r' : list sval * list tomlval) : Prop := Forall2 R (fst r) (fst r') /\ Forall2 Rx (snd r) (snd r').

    Lemma rr_pos {A} (proj : A -> ty) l : Forall (fun a => related_at (proj a)) l ->
      forall xs ys, Forall2 Rx xs ys -> rr pos_rel (de_pos d1 proj l xs) (de_pos d2 proj l ys).
    Proof.
      induction 1 as [|a l Ha _ IH]; intros xs ys F; simpl; [split; [constructor|exact F]|].
      destruct F as [|x y xs ys Hxy F]; [exact I|].
      apply (rr_rbind R); [exact (Ha x y Hxy)|]. intros v v' Hv.
      apply (rr_rbind pos_rel); [exact (IH xs ys F)|]. intros r r' [Hr Hrest]. split; [constructor; assumption|exact Hrest].
    Qed.

    Lemma rr_all_read p p' : rr pos_rel p p' -> rr (Forall2 R) (all_read p) (all_read p').
    Proof.
      intro H. apply (rr_rbind pos_rel _ _ _ _ _ H). intros r r' [Hr Hrest].
      destruct Hrest; [exact Hr|exact I].
    Qed.

    (* visit_map of a struct: the two tables answer every field name alike *)
    Definition same_lookup (es es' : list (bytes * tomlval)) : Prop :=
      forall f, match tab_get f es with
                | Some x => exists y, tab_get f es' = Some y /\ Rx x y
                | None => tab_get f es' = None
                end.

    Lemma rr_fields_map es es' : R SNone SNone -> same_lookup es es' ->
      forall fs, Forall (fun ft => related_at (snd ft)) fs ->
      forall seen, rr (Forall2 R) (de_fields_map d1 es seen fs) (de_fields_map d2 es' seen fs).
    Proof.
      intros Hnone L. induction 1 as [|[f t] fs Ht _ IH]; intro seen; simpl; [constructor|].
      assert (Hmiss : rr R (missing_field t) (missing_field t)) by (destruct t; simpl; try exact I; exact Hnone).
      apply (rr_rbind R).
      - destruct (mem_bytes f seen); [exact Hmiss|]. specialize (L f).
        destruct (tab_get f es) as [x|]; [destruct L as (y & -> & Hxy); exact (Ht x y Hxy)|rewrite L; exact Hmiss].
      - intros v v' Hv. apply (rr_rbind (Forall2 R)); [apply IH|]. intros m m' Hm. simpl. constructor; assumption.
    Qed.
  End Visitors.
End Rel.

Notation lockstep := (rr False False).
Notation follows := (rr False True).
Notation agree := (rr True True).

(* lock step, spelled out: the same verdict, and related values on success *)
Lemma lockstep_spelled {A B} (R : A -> B -> Prop) r1 r2 : lockstep R r1 r2 ->
  ((exists a, r1 = Ok a) <-> (exists b, r2 = Ok b)) /\ (forall a b, r1 = Ok a -> r2 = Ok b -> R a b).
Proof.
  destruct r1 as [a|e], r2 as [b|e']; simpl; intro H; try contradiction.
  - split; [split; eauto|]. intros a0 b0 E1 E2. injection E1 as <-. injection E2 as <-. exact H.
  - split; [split; intros (? & E); discriminate E|]. intros a0 b0 E1. discriminate E1.
Qed.

Lemma follows_ok {A B} (R : A -> B -> Prop) r1 r2 a : follows R r1 r2 -> r1 = Ok a -> exists b, r2 = Ok b /\ R a b.
Proof. intros H ->. destruct r2 as [b|e]; [eauto|contradiction]. Qed.

Lemma agree_ok {A B} (R : A -> B -> Prop) r1 r2 a b : agree R r1 r2 -> r1 = Ok a -> r2 = Ok b -> R a b.
Proof. intros H -> ->. exact H. Qed.

Lemma agree_intro {A B} (R : A -> B -> Prop) r1 r2 : (forall a b, r1 = Ok a -> r2 = Ok b -> R a b) -> agree R r1 r2.
Proof. destruct r1, r2; simpl; auto. Qed.

Lemma agree_err_l {A B} (R : A -> B -> Prop) e r2 : agree R (Err e) r2.
Proof. destruct r2; exact I. Qed.
Lemma agree_err_r {A B} (R : A -> B -> Prop) r1 e : agree R r1 (Err e).
Proof. destruct r1; exact I. Qed.

Definition scalar_ty (t : ty) : bool :=
  match t with TBool | TInt _ | TFloat _ | TChar | TStr | TUnit | TUnitStruct _ => true | _ => false end.
