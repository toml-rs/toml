(* Proofs/PrintBackEnc.v — C03: inputs as windows into the source, and what a recorded span prints. *)
From TV Require Import Base.Prelude Base.Winnow.
From TV Require Import Model.Tree Model.Parse Model.Encode.
From TV Require Import Proofs.LexEquivBase Proofs.TilingDefs Proofs.PrintBackBase.
Require Import Lia ZifyBool ZifyN ZifyNat.

(* ---- an input reading the source s ----------------------------------------------------------------- *)
Definition isrc (s : bytes) (i : input) : Prop := exists p, s = p ++ rest i /\ pos i = N.of_nat (length p).

Lemma isrc_new s : isrc s (new_input s).
Proof. exists []. split; reflexivity. Qed.

Lemma isrc_splits s i t i' : isrc s i -> splits i t i' -> isrc s i' /\ slice s (pos i) (pos i') = t.
Proof.
  intros (p & Es & Ep) [R ->]. split.
  - exists (p ++ t). split; [rewrite Es, R, app_assoc; reflexivity|]. rewrite pos_adv, Ep, app_length. lia.
  - unfold slice. rewrite pos_adv, Ep. replace (N.to_nat (N.of_nat (length p) + N.of_nat (length t) - N.of_nat (length p))) with (length t) by lia.
    rewrite Nat2N.id, Es, skipn_app_len, R. apply firstn_app_len.
Qed.

Lemma splits_app_inv i a b i' : splits i (a ++ b) i' -> exists j, splits i a j /\ splits j b i'.
Proof.
  intros [R E]. rewrite <- app_assoc in R. exists (adv a i). split; [apply (splits_adv i a _ R)|].
  split; [apply (rest_adv a _ i R)|]. rewrite adv_adv. exact E.
Qed.

Lemma isrc_set_depth s i d : isrc s i -> isrc s (set_depth d i).
Proof. exact (fun H => H). Qed.

(* ---- what a recorded span prints -------------------------------------------------------------------- *)
Lemma strip_cr_ncr t : strip_cr t = ncr t.
Proof. reflexivity. Qed.

Lemma span_encode s a b t dflt : slice s a b = t -> (t = [] <-> a = b) ->
  raw_encode (traw s (raw_with_span (a, b))) dflt = ncr t.
Proof.
  intros Hs Hab. unfold raw_with_span. cbn [fst snd]. destruct (a =? b)%N eqn:E.
  - apply N.eqb_eq in E. rewrite (proj2 Hab E). reflexivity.
  - cbn [traw]. rewrite Hs. destruct t as [|c t']; [apply N.eqb_neq in E; exfalso; apply E, Hab; reflexivity|reflexivity].
Qed.

Lemma splits_empty_iff i t i' : splits i t i' -> (t = [] <-> pos i = pos i').
Proof.
  intros [_ ->]. rewrite pos_adv. split; [intros ->; cbn [length]; lia|]. destruct t; [reflexivity|cbn [length]; lia].
Qed.

Lemma span_prints s i t i' dflt : isrc s i -> splits i t i' ->
  raw_encode (traw s (raw_with_span (pos i, pos i'))) dflt = ncr t.
Proof. intros Hi S. apply span_encode; [apply (isrc_splits s i t i' Hi S)|apply (splits_empty_iff i t i' S)]. Qed.

Lemma span_repr s i t i' : isrc s i -> splits i t i' ->
  repr_str (toraw s (Some (raw_with_span (pos i, pos i')))) = Some t.
Proof.
  intros Hi S. destruct (isrc_splits s i t i' Hi S) as [_ Hs]. pose proof (splits_empty_iff i t i' S) as Hab.
  unfold raw_with_span. cbn [fst snd]. destruct (pos i =? pos i')%N eqn:E.
  - apply N.eqb_eq in E. rewrite (proj2 Hab E). reflexivity.
  - cbn [toraw traw]. rewrite Hs. destruct t as [|c t']; [apply N.eqb_neq in E; exfalso; apply E, Hab; reflexivity|reflexivity].
Qed.

