(* Proofs/WFParseBase.v — parsed documents are well-formed (Spec/WF.v), part 1: what a recorded span holds after
   despanning (Proofs/PrintBackBase.v total despan `traw` / `tkey` / `tvalue`: the partial despan of Model/Encode.v
   equals it whenever it succeeds), key/value list operations, and key paths (key.rs `key`). *)
From TV Require Import Base.Prelude Base.Winnow Gen.Consts Spec.Lex Spec.WF.
From TV Require Import Model.Tree Model.Parse.
From TV Require Import Proofs.LexEquivBase Proofs.LexEquivTrivia Proofs.LexEquivStrings Proofs.LexEquivKey Proofs.GrammarSep
                       Proofs.TilingDefs Proofs.PrintBackBase Proofs.PrintBackEnc.
From TV Require Import Proofs.WFPrintKey Proofs.WFTree.
Require Import Lia NArith.

(* ---- despanning --------------------------------------------------------------------------------------------------------- *)
Section Src.
  Variable s : bytes.

  Definition tkv (kv : key * item) : key * item := (tkey s (fst kv), titem s (snd kv)).
  Lemma tvalue_array vals tr c d sp : tvalue s (VArray vals tr c d sp) = VArray (map (titem s) vals) (traw s tr) c (tdecor s d) None.
  Proof. cbn [tvalue]. f_equal; try (induction vals as [|it tl IH]; [reflexivity|cbn [map]; rewrite <- IH; reflexivity]). Qed.
  Lemma tvalue_inline items pre im dt d sp :
    tvalue s (VInline items pre im dt d sp) = VInline (map tkv items) (traw s pre) im dt (tdecor s d) None.
  Proof.
    cbn [tvalue]. f_equal; try (induction items as [|[k it] tl IH]; [reflexivity|cbn [map tkv fst snd]; rewrite <- IH; reflexivity]).
  Qed.
  Lemma ttbl_eq items d im dt p sp : ttbl s (Tbl items d im dt p sp) = Tbl (map tkv items) (tdecor s d) im dt p None.
  Proof.
    cbn [ttbl]. f_equal; try (induction items as [|[k it] tl IH]; [reflexivity|cbn [map tkv fst snd]; rewrite <- IH; reflexivity]).
  Qed.
  Lemma titem_aot ts sp : titem s (IAot ts sp) = IAot (map (ttbl s) ts) None.
  Proof. cbn [titem]. f_equal; try (induction ts as [|t tl IH]; [reflexivity|cbn [map]; rewrite <- IH; reflexivity]). Qed.
  Lemma tvalue_decorate v p q : tvalue s (value_decorate v p q) = value_decorate (tvalue s v) (traw s p) (traw s q).
  Proof. destruct v; cbn [value_decorate]; rewrite ?tvalue_array, ?tvalue_inline; reflexivity. Qed.
  Lemma kkeys_tkv m : kkeys (map tkv m) = kkeys m.
  Proof. unfold kkeys. rewrite map_map. reflexivity. Qed.
  Lemma value_depth_t : forall v, value_depth (tvalue s v) = value_depth v.
  Proof.
    refine (proj1 (SpansDefs.tree_ind3 (fun v => value_depth (tvalue s v) = value_depth v)
                     (fun it => match it with IValue e => value_depth (tvalue s e) = value_depth e | _ => True end)
                     (fun _ => True) _ _ _ _ _ _ _ _)); auto.
    - intros vals tr c d sp IH. rewrite tvalue_array. cbn [value_depth]. f_equal. induction IH as [|it l Hit _ IHl]; [reflexivity|].
      cbn [map fold_right]. rewrite IHl. destruct it as [|e| |]; try reflexivity. change (titem s (IValue e)) with (IValue (tvalue s e)). cbv beta iota. rewrite Hit. reflexivity.
    - intros items pre im dt d sp IH. rewrite tvalue_inline. cbn [value_depth]. f_equal. induction IH as [|[k it] l Hit _ IHl]; [reflexivity|].
      cbn [map fold_right tkv fst snd] in *. rewrite IHl. destruct it as [|e| |]; try reflexivity. change (titem s (IValue e)) with (IValue (tvalue s e)). cbv beta iota. rewrite Hit. reflexivity.
  Qed.

  (* a span of consumed text, despanned, holds that text: as decor it prints it with the CRs dropped *)
  Lemma traw_not_spanned r : match traw s r with RSpanned _ _ => False | _ => True end.
  Proof. destruct r as [|t|a b]; cbn [traw]; auto. unfold raw_of_bytes. destruct (slice s a b); exact I. Qed.
  Lemma span_raw_ok sl i t i' : isrc s i -> splits i t i' -> slot_ok sl (ncr t) -> raw_ok sl (traw s (raw_with_span (pos i, pos i'))).
  Proof.
    intros Hi S Ht. pose proof (span_prints s i t i' [] Hi S) as E. pose proof (traw_not_spanned (raw_with_span (pos i, pos i'))) as N.
    unfold raw_ok. destruct (traw s (raw_with_span (pos i, pos i'))); [rewrite E; exact Ht|rewrite E; exact Ht|contradiction].
  Qed.
  Lemma span_ws_ok sl i w i' : isrc s i -> splits i w i' -> ws_tok w -> raw_ok sl (traw s (raw_with_span (pos i, pos i'))).
  Proof. intros Hi S Hw. apply (span_raw_ok sl i w i' Hi S). rewrite (ncr_ws w Hw). apply ws_slot, Hw. Qed.
  Lemma empty_raw_ok sl : raw_ok sl REmpty.
  Proof. unfold raw_ok. cbn. apply ws_slot. reflexivity. Qed.
  Lemma span_explicit i t i' : isrc s i -> splits i t i' -> t <> [] -> traw s (raw_with_span (pos i, pos i')) = RExplicit t.
  Proof.
    intros Hi S Hne. destruct (isrc_splits s i t i' Hi S) as [_ Hs]. pose proof (splits_empty_iff i t i' S) as Hab.
    unfold raw_with_span. cbn [fst snd]. destruct (pos i =? pos i')%N eqn:E.
    - apply N.eqb_eq in E. exfalso. apply Hne, Hab, E.
    - cbn [traw]. rewrite Hs. destruct t; [congruence|reflexivity].
  Qed.

  (* ---- keys ------------------------------------------------------------------------------------------------------------ *)
  (* a key as `key` stores it: repr spelling the key, blanks as decor *)
  Definition kgood (k : key) : Prop := key_wf false (tkey s k).

  Lemma key_part_good i a i1 : isrc s i -> key_part i = Ok a i1 -> isrc s i1 /\ kgood a.
  Proof.
    unfold key_part. intros Hi H.
    apply bind_inv in H as (pre & j1 & H1 & H). pose proof H1 as H1'. apply span_inv in H1' as (w0 & E1 & Epre).
    apply ws_sound in E1 as (Hw0 & S1 & _). destruct (isrc_splits s i _ j1 Hi S1) as [Hj1 _].
    apply bind_inv in H as ([rw k] & j2 & H2 & H). apply simple_key_sound in H2 as (t & Ht & S2 & Erw).
    destruct (isrc_splits s j1 _ j2 Hj1 S2) as [Hj2 _].
    apply bind_inv in H as (suf & j3 & H3 & H). pose proof H3 as H3'. apply span_inv in H3' as (w & E3 & Esuf).
    apply ws_sound in E3 as (Hw & S3 & _). destruct (isrc_splits s j2 _ j3 Hj2 S3) as [Hj3 _].
    apply ret_inv in H as [-> ->]. split; [exact Hj3|]. unfold kgood, key_wf, key_repr_ok. cbn [tkey k_repr k_key k_dotted k_leaf toraw].
    assert (Hne : t <> []) by (destruct (simple_key_tok_head t k Ht) as (b & t' & -> & _); discriminate).
    subst rw pre suf. rewrite (span_explicit j1 t j2 Hj1 S2 Hne). split; [exact Ht|]. split.
    - split; cbn [tdecor decor_new d_prefix d_suffix toraw oraw_ok]; [apply (span_ws_ok SWs i w0 j1 Hi S1 Hw0)|apply (span_ws_ok SWs j2 w j3 Hj2 S3 Hw)].
    - split; exact I.
  Qed.

  Lemma key_seps_good i l i' : isrc s i -> seps key_part dot_sep i l i' -> isrc s i' /\ Forall kgood l.
  Proof.
    intros Hi R. induction R as [i F|i x i1 E Hlt F|i x i1 a i2 l i3 E Hlt E2 Hle R IH]; [auto|auto|].
    apply byte_inv in E as [_ S1]. destruct (isrc_splits s i _ i1 Hi S1) as [Hi1 _].
    destruct (key_part_good i1 a i2 Hi1 E2) as [Hi2 Ha]. destruct (IH Hi2) as [Hi3 Hl]. auto.
  Qed.

  Lemma kgood_set_dotted_prefix k : kgood k -> kgood (set_dotted_prefix k REmpty).
  Proof.
    intros (H1 & [H2 H3] & H4). unfold kgood, key_wf, key_repr_ok in *. cbn [tkey set_dotted_prefix k_repr k_key k_dotted k_leaf] in *.
    split; [exact H1|]. split; [|exact H4]. split; cbn [tdecor d_prefix d_suffix toraw oraw_ok traw] in *; [apply empty_raw_ok|exact H3].
  Qed.
  Lemma kgood_set_dotted_suffix k : kgood k -> kgood (set_dotted_suffix k REmpty).
  Proof.
    intros (H1 & [H2 H3] & H4). unfold kgood, key_wf, key_repr_ok in *. cbn [tkey set_dotted_suffix k_repr k_key k_dotted k_leaf] in *.
    split; [exact H1|]. split; [|exact H4]. split; cbn [tdecor d_prefix d_suffix toraw oraw_ok traw] in *; [exact H2|apply empty_raw_ok].
  Qed.
  Lemma kgood_set_leaf k p q : kgood k -> raw_ok SWs (traw s p) -> raw_ok SWs (traw s q) -> kgood (set_leaf k (decor_new p q)).
  Proof.
    intros (H1 & H2 & _) Hp Hq. unfold kgood, key_wf, key_repr_ok in *. cbn [tkey set_leaf k_repr k_key k_dotted k_leaf] in *.
    split; [exact H1|]. split; [exact H2|]. split; assumption.
  Qed.
  Lemma kgood_dotted_prefix k : kgood k -> raw_ok SWs (traw s (match d_prefix (k_dotted k) with Some p => p | None => REmpty end)).
  Proof.
    intros (_ & [H2 _] & _). cbn [tkey k_dotted tdecor d_prefix] in H2. destruct (d_prefix (k_dotted k)); [exact H2|apply empty_raw_ok].
  Qed.
  Lemma kgood_dotted_suffix k : kgood k -> raw_ok SWs (traw s (match d_suffix (k_dotted k) with Some p => p | None => REmpty end)).
  Proof.
    intros (_ & [_ H3] & _). cbn [tkey k_dotted tdecor d_suffix] in H3. destruct (d_suffix (k_dotted k)); [exact H3|apply empty_raw_ok].
  Qed.

  Lemma fix_key_path_good path p : Forall kgood path -> fix_key_path path = Some p -> Forall kgood p /\ length p = length path.
  Proof.
    unfold fix_key_path. destruct path as [|first tl]; [discriminate|]. intros Hall.
    inversion Hall as [|? ? Hf Htl]; subst.
    set (first' := match d_prefix (k_dotted first) with Some _ => set_dotted_prefix first REmpty | None => first end).
    assert (Hf' : kgood first') by (unfold first'; destruct (d_prefix (k_dotted first)); [apply kgood_set_dotted_prefix, Hf|exact Hf]).
    assert (Hall' : Forall kgood (first' :: tl)) by (constructor; assumption).
    destruct (rev (first' :: tl)) as [|last rinit] eqn:Er; [discriminate|]. intro H. injection H as <-.
    assert (Hr : Forall kgood (last :: rinit)) by (rewrite <- Er; apply Forall_rev, Hall').
    inversion Hr as [|? ? Hl Hri]; subst.
    split.
    - cbn [rev]. apply Forall_app. split; [apply Forall_rev, Hri|]. constructor; [|constructor].
      apply kgood_set_leaf; [|apply kgood_dotted_prefix, Hf|apply kgood_dotted_suffix, Hl].
      destruct (d_suffix (k_dotted last)); [apply kgood_set_dotted_suffix, Hl|exact Hl].
    - cbn [rev]. rewrite app_length, rev_length. cbn [length]. apply (f_equal (@length key)) in Er. rewrite rev_length in Er. cbn [length] in Er. lia.
  Qed.

  (* key.rs `key`: a non-empty path of fewer than LIMIT good keys *)
  Lemma key_good i kp i' : isrc s i -> key_ i = Ok kp i' -> isrc s i' /\ Forall kgood kp /\ kp <> [] /\ length kp < LIMIT.
  Proof.
    unfold key_. intros Hi H. apply bind_inv in H as (path & j & H1 & H).
    apply try_map_inv in H1 as (path0 & H1 & Htm). apply context_inv in H1.
    apply (separated1_inv _ _ _ _ _ key_part_shrinking dot_sep_shrinking) in H1 as (a & i1 & l & -> & Ea & R).
    destruct (key_part_good i a i1 Hi Ea) as [Hi1 Ha]. destruct (key_seps_good i1 l j Hi1 R) as [Hj Hl].
    unfold check_depth in Htm. destruct (Nat.leb LIMIT (length (a :: l))) eqn:El; [discriminate|]. injection Htm as <-.
    apply Nat.leb_gt in El.
    destruct (fix_key_path (a :: l)) as [p|] eqn:Ef; [|discriminate]. apply ret_inv in H as [-> ->].
    destruct (fix_key_path_good (a :: l) p (Forall_cons _ Ha Hl) Ef) as [Hp Hlen].
    split; [exact Hj|]. split; [exact Hp|]. split; [destruct p; [discriminate|discriminate]|lia].
  Qed.

  Lemma pop_key_good kp path k : Forall kgood kp -> pop_key kp = Some (path, k) -> Forall kgood path /\ kgood k /\ kp = path ++ [k].
  Proof.
    unfold pop_key. intros Hall H. destruct (rev kp) as [|last rinit] eqn:Er; [discriminate|]. injection H as <- <-.
    assert (E : kp = rev rinit ++ [last]) by (rewrite <- (rev_involutive kp), Er; reflexivity).
    rewrite E in Hall. apply Forall_app in Hall as [H1 H2]. inversion H2; subst. auto.
  Qed.
End Src.
