(* Proofs/SerdeRTLists.v — C07: the container layers of the round trip, stated for an arbitrary serializer /
   deserializer pair and an arbitrary relation `E` between the tree written and the tree read (equality for the value
   routes; equality up to the order of table entries and the payload of NaNs for the text routes), so that every
   family and route shares them.  Hypotheses are element-wise: about the very values in the list at hand. *)
From TV Require Import Base.Prelude Spec.SerdeData Model.Ser Model.De Proofs.SerdeRTBase.
From Coq Require Import Permutation.

Section Generic.
  Variable ser : ty -> sval -> result tomlval.
  Variable de : ty -> tomlval -> result sval.

  (* what the field loop of a table serializer returns for one field *)
  Definition field_out (mv : ty -> sval -> result (option tomlval)) (ft : bytes * ty) (v : sval)
    : result (option (bytes * tomlval)) :=
    rmap (optmap (fun x => (fst ft, x))) (mv (snd ft) v).
End Generic.

Section Related.
  Variable ser : ty -> sval -> result tomlval.
  Variable de : ty -> tomlval -> result sval.
  Variable E : tomlval -> tomlval -> Prop.

  (* a value that reads back from whatever `E` relates its serialization to *)
  Definition rt_val (t : ty) (v : sval) : Prop :=
    forall x y, ser t v = Ok x -> E x y -> exists v', de t y = Ok v' /\ sval_eq v v'.

  (* ---- sequences ---- *)
  Lemma rt_list t vs : Forall (rt_val t) vs -> forall xs ys,
    mapM (ser t) vs = Ok xs -> Forall2 E xs ys -> exists vs', mapM (de t) ys = Ok vs' /\ Forall2 sval_eq vs vs'.
  Proof.
    induction 1 as [|v vs Hv _ IH]; intros xs ys H Fy; simpl in *.
    - injection H as <-. inversion Fy; subst. exists []. split; [reflexivity|constructor].
    - apply rbind_ok in H as (x & Hx & H). apply rbind_ok in H as (xs' & Hxs & H). injection H as <-.
      inversion Fy as [|? y ? ys' Hy Fys]; subst.
      destruct (Hv x y Hx Hy) as (v' & Dv & Ev). destruct (IH xs' ys' Hxs Fys) as (vs' & Dvs & Evs).
      exists (v' :: vs'). simpl. rewrite Dv, Dvs. simpl. split; [reflexivity|constructor; assumption].
  Qed.

  (* ---- tuples ---- *)
  Lemma rt_tuple ts vs : Forall2 rt_val ts vs -> forall xs ys,
    zipM ser ts vs = Ok xs -> Forall2 E xs ys ->
    length ys = length ts /\
    exists vs', de_pos de (fun t' => t') ts ys = Ok (vs', []) /\ Forall2 sval_eq vs vs'.
  Proof.
    induction 1 as [|t v ts vs Hv _ IH]; intros xs ys H Fy; simpl in *.
    - injection H as <-. inversion Fy; subst. split; [reflexivity|]. exists []. split; [reflexivity|constructor].
    - apply rbind_ok in H as (x & Hx & H). apply rbind_ok in H as (xs' & Hxs & H). injection H as <-.
      inversion Fy as [|? y ? ys' Hy Fys]; subst.
      destruct (Hv x y Hx Hy) as (v' & Dv & Ev). destruct (IH xs' ys' Hxs Fys) as (Hl & vs' & Dvs & Evs).
      split; [simpl; congruence|].
      exists (v' :: vs'). simpl. rewrite Dv. simpl. rewrite Dvs. simpl. split; [reflexivity|constructor; assumption].
  Qed.

  (* ---- struct fields: what the field loop of a table serializer returns, entry by entry ---- *)
  (* per field: either left out (a None of an Option type) or present under the field's name with a
     value that reads back *)
  Definition field_rt (ft : bytes * ty) (v : sval) (p : option (bytes * tomlval)) : Prop :=
    match p with
    | None => v = SNone /\ is_opt (snd ft) = true
    | Some (k, x) => k = fst ft /\ forall y, E x y -> exists v', de (snd ft) y = Ok v' /\ sval_eq v v'
    end.

  Lemma fields_rt fs vs : Forall2 (fun ft v => rt_val (snd ft) v) fs vs -> forall ps,
    zipM (fun ft v' => rmap (optmap (fun x => (fst ft, x))) (ser_map_value ser (snd ft) v')) fs vs = Ok ps ->
    Forall3 field_rt fs vs ps.
  Proof.
    induction 1 as [|[f t] v fs vs Hv _ IH]; intros ps H; simpl in *.
    - injection H as <-. constructor.
    - apply rbind_ok in H as (p & Hp & H). apply rbind_ok in H as (ps' & Hps & H). injection H as <-.
      constructor; [|apply IH; assumption].
      apply rmap_ok in Hp as (ox & Hox & ->).
      destruct (ser_map_value_cases ser t v) as [(t' & -> & -> & E0)|[_ E0]]; rewrite E0 in Hox.
      + injection Hox as <-. simpl. auto.
      + apply rmap_ok in Hox as (x & Hx & ->). simpl. split; [reflexivity|]. intros y Hy. apply (Hv x y Hx Hy).
  Qed.

  (* keys of the entries written are field names, in field order *)
  Lemma fields_keys fs vs ps :
    Forall3 (fun ft v p => field_rt ft v p) fs vs ps ->
    forall k x, In (Some (k, x)) ps -> In k (map fst fs).
  Proof.
    induction 1 as [|ft v p fs vs ps Hrt _ IH]; intros k x Hin; simpl in *; [contradiction|].
    destruct Hin as [->|Hin]; [left; simpl in Hrt; destruct Hrt as [-> _]; reflexivity|right; eapply IH; exact Hin].
  Qed.

  Lemma fields_somes_nodup fs vs ps :
    Forall3 (fun ft v p => field_rt ft v p) fs vs ps -> NoDup (map fst fs) ->
    NoDup (map fst (somes ps)).
  Proof.
    intros F. pose proof (fields_keys _ _ _ F) as K. induction F as [|ft v p fs vs ps Hrt F IH]; intro Hnd; simpl; [constructor|].
    inversion Hnd as [|? ? Hnot Hnd']; subst.
    assert (IH' : NoDup (map fst (somes ps))) by (apply IH; [eapply fields_keys; exact F|exact Hnd']).
    destruct p as [[k x]|]; [|exact IH']. simpl. constructor; [|exact IH'].
    simpl in Hrt. destruct Hrt as [-> _]. intro Hin. apply Hnot.
    apply in_map_iff in Hin as ([k' x'] & Hk & Hin). simpl in Hk; subst k'.
    apply somes_In in Hin. eapply fields_keys; [exact F|exact Hin].
  Qed.

  (* lookups in ANY table holding exactly the entries written (insertion order or sorted) *)
  Lemma fields_lookup es : forall fs vs ps,
    Forall3 (fun ft v p => field_rt ft v p) fs vs ps ->
    NoDup (map fst fs) -> NoDup (map fst es) ->
    (forall kx, In (Some kx) ps -> In kx es) ->
    (forall k x, In (k, x) es -> In k (map fst fs) -> In (Some (k, x)) ps) ->
    Forall3 (fun ft v p => field_rt ft v p /\ tab_get (fst ft) es = optmap snd p) fs vs ps.
  Proof.
    induction 1 as [|ft v p fs vs ps Hrt F IH]; intros Hnd Hes H3 H4; [constructor|].
    inversion Hnd as [|? ? Hnot Hnd']; subst.
    constructor.
    - split; [exact Hrt|].
      destruct p as [[k x]|]; simpl.
      + simpl in Hrt. destruct Hrt as [-> _]. apply tab_get_In; [exact Hes|]. apply H3. left; reflexivity.
      + destruct (tab_get (fst ft) es) as [x'|] eqn:G; [exfalso|reflexivity].
        assert (Hin : In (fst ft, x') es).
        { clear - G. induction es as [|[k' y] es IHes]; simpl in G; [discriminate|].
          destruct (bytes_eqb k' (fst ft)) eqn:E; [apply bytes_eqb_eq in E; subst; injection G as ->; left; reflexivity|].
          right; apply IHes; exact G. }
        specialize (H4 _ _ Hin (or_introl eq_refl)). destruct H4 as [H4|H4]; [discriminate|].
        apply Hnot. eapply fields_keys; [exact F|exact H4].
    - apply IH; [exact Hnd'|exact Hes| |].
      + intros kx Hin. apply H3. right; exact Hin.
      + intros k x Hin Hk. destruct (H4 k x Hin (or_intror Hk)) as [Hp|Hp]; [|exact Hp].
        exfalso. subst p. simpl in Hrt. destruct Hrt as [-> _]. apply Hnot. exact Hk.
  Qed.

  Lemma dup_field_hit_nodup names (es : list (bytes * tomlval)) : NoDup (map fst es) -> dup_field_hit names es = false.
  Proof.
    intro H. unfold dup_field_hit. apply negb_false_iff. apply nodup_bytes_NoDup. apply NoDup_filter. exact H.
  Qed.

  (* ---- the table read: the entries written, in some order, each value replaced by a related one ---- *)
  Definition entry_rel (p q : bytes * tomlval) : Prop := fst p = fst q /\ E (snd p) (snd q).

  Lemma rel_lookup es es' fs : Permutation es es' -> Forall2 entry_rel es' fs -> NoDup (map fst es) ->
    NoDup (map fst fs) /\ Permutation (map fst es) (map fst fs) /\
    forall k, match tab_get k es with
              | Some x => exists y, tab_get k fs = Some y /\ E x y
              | None => tab_get k fs = None
              end.
  Proof.
    intros P F Hnd.
    assert (Ek : map fst es' = map fst fs).
    { clear - F. induction F as [|p q l l' [H _] _ IH]; simpl; [reflexivity|]. rewrite H, IH. reflexivity. }
    assert (Pk : Permutation (map fst es) (map fst fs)) by (rewrite <- Ek; apply Permutation_map, P).
    assert (Hnd' : NoDup (map fst fs)) by (apply (Permutation_NoDup Pk Hnd)).
    split; [exact Hnd'|]. split; [exact Pk|]. intro k. destruct (tab_get k es) as [x|] eqn:G.
    - apply tab_get_Some_In in G. apply (Permutation_in _ P) in G.
      destruct (Forall2_In_l _ _ _ _ F G) as ([k' y] & Hin & Hk & He). simpl in Hk, He. subst k'.
      exists y. split; [apply tab_get_In; assumption|exact He].
    - apply tab_get_None_notin in G. apply tab_get_notin. intro Hin. apply G.
      apply (Permutation_in _ (Permutation_sym Pk)), Hin.
  Qed.

  (* what a lookup of the field's name finds in the table read *)
  Definition field_at (es : list (bytes * tomlval)) (ft : bytes * ty) (p : option (bytes * tomlval)) : Prop :=
    match p with
    | Some (_, x) => exists y, tab_get (fst ft) es = Some y /\ E x y
    | None => tab_get (fst ft) es = None
    end.

  (* derive's visit_map on a table whose lookups agree with the entries written *)
  Lemma de_fields_map_spec es : forall fs vs ps seen,
    Forall3 (fun ft v p => field_rt ft v p /\ field_at es ft p) fs vs ps ->
    NoDup (map fst fs) -> (forall f, In f seen -> ~ In f (map fst fs)) ->
    exists vs', de_fields_map de es seen fs = Ok vs' /\ Forall2 sval_eq vs vs'.
  Proof.
    intros fs vs ps seen F. revert seen.
    induction F as [|[f t] v p fs vs ps [Hrt Hget] _ IH]; intros seen Hnd Hseen; simpl.
    - exists []. split; [reflexivity|constructor].
    - inversion Hnd as [|? ? Hnot Hnd']; subst.
      assert (Hmem : mem_bytes f seen = false).
      { apply mem_bytes_false. intro Hin. apply (Hseen f Hin). left; reflexivity. }
      rewrite Hmem.
      destruct (IH (f :: seen) Hnd') as (vs' & Dvs & Evs).
      { intros g [<-|Hin] Hg; [apply Hnot; exact Hg|]. apply (Hseen g Hin). right; exact Hg. }
      destruct p as [[k x]|]; simpl in Hrt, Hget.
      + destruct Hget as (y & Gy & He). rewrite Gy. destruct Hrt as (_ & Hx). destruct (Hx y He) as (v' & Dv & Ev).
        simpl in Dv. rewrite Dv. simpl. rewrite Dvs. simpl.
        exists (v' :: vs'). split; [reflexivity|constructor; assumption].
      + rewrite Hget. destruct Hrt as (-> & Hopt). simpl in Hopt. destruct t; try discriminate. simpl. rewrite Dvs. simpl.
        exists (SNone :: vs'). split; [reflexivity|constructor; [constructor|assumption]].
  Qed.

  (* a struct (or struct variant) written as a table reads back, whatever the order of the table read *)
  Lemma rt_struct_table fs vs ps es' es :
    Forall3 (fun ft v p => field_rt ft v p) fs vs ps -> NoDup (map fst fs) ->
    Permutation (somes ps) es' -> Forall2 entry_rel es' es ->
    struct_keys_ok (map fst fs) es = true /\
    exists vs', de_struct_map de fs es = Ok vs' /\ Forall2 sval_eq vs vs'.
  Proof.
    intros F Hnd P F2. pose proof (fields_somes_nodup _ _ _ F Hnd) as Hes.
    destruct (rel_lookup _ _ _ P F2 Hes) as (Hnd' & Pk & Hget). split.
    - unfold struct_keys_ok. apply forallb_forall. intros [k y] Hin. simpl. apply mem_bytes_In.
      apply (in_map fst), (Permutation_in _ (Permutation_sym Pk)), in_map_iff in Hin as ([k' x] & Hk & Hin). simpl in Hk. subst k'.
      apply somes_In in Hin. eapply fields_keys; [exact F|exact Hin].
    - unfold de_struct_map. rewrite dup_field_hit_nodup by exact Hnd'.
      apply (de_fields_map_spec es fs vs ps []); [|exact Hnd|intros f []].
      eapply Forall3_impl; [|apply (fields_lookup (somes ps) fs vs ps F Hnd Hes)].
      + intros ft v p _ [Hrt Hg]. split; [exact Hrt|]. specialize (Hget (fst ft)). rewrite Hg in Hget.
        destruct p as [[k x]|]; exact Hget.
      + intros kx Hin. apply somes_In, Hin.
      + intros k x Hin _. apply somes_In, Hin.
  Qed.

  (* ---- maps read back: keys that cannot collide, inserted one by one ---- *)
  Lemma smap_insert_fresh k v es :
    (forall k' v', In (k', v') es -> sval_beq k' k = false) -> smap_insert k v es = es ++ [(k, v)].
  Proof.
    induction es as [|[k' v'] es IH]; intro H; simpl; [reflexivity|].
    rewrite (H k' v' (or_introl eq_refl)). rewrite IH; [reflexivity|].
    intros k'' v'' Hin. apply (H k'' v''). right; exact Hin.
  Qed.

  Lemma smap_of_pairs_distinct_gen ps : forall acc,
    ForallOrdPairs (fun p q => sval_beq (fst p) (fst q) = false) (acc ++ ps) ->
    fold_left (fun acc p => smap_insert (fst p) (snd p) acc) ps acc = acc ++ ps.
  Proof.
    induction ps as [|[k v] ps IH]; intros acc H; simpl; [rewrite app_nil_r; reflexivity|].
    rewrite smap_insert_fresh.
    - rewrite IH; [rewrite <- app_assoc; reflexivity|]. rewrite <- app_assoc. exact H.
    - intros k' v' Hin.
      clear IH. induction acc as [|a acc IHacc]; [contradiction|]. simpl in H. inversion H as [|? ? Ha Hrest]; subst.
      destruct Hin as [->|Hin].
      + rewrite Forall_forall in Ha. apply (Ha (k, v)). apply in_or_app; right; left; reflexivity.
      + apply IHacc; assumption.
  Qed.

  Lemma smap_of_pairs_distinct ps :
    ForallOrdPairs (fun p q => sval_beq (fst p) (fst q) = false) ps -> smap_of_pairs ps = ps.
  Proof. intro H. unfold smap_of_pairs. rewrite smap_of_pairs_distinct_gen; [reflexivity|exact H]. Qed.
End Related.
Arguments fields_somes_nodup de {E} fs vs ps.

(* ---- map entries written one by one: keys that read back, values that are present; `V` is what is known of a value and
   its serialization ---- *)
Section Entries.
  Variable ser : ty -> sval -> result tomlval.
  Variable key : ty -> sval -> result bytes.
  Variable dkey : ty -> bytes -> result sval.
  Variable V : sval -> tomlval -> Prop.

  Definition key_rt (kt : ty) (k : sval) : Prop :=
    forall s, key kt k = Ok s -> key_text kt k = Some s /\ dkey kt s = Ok k /\ sval_eq k k.

  Lemma entries_rt kt vt es :
    Forall (fun kv => key_rt kt (fst kv) /\ snd kv <> SNone /\ forall x, ser vt (snd kv) = Ok x -> V (snd kv) x) es -> forall ps,
    mapM (fun kv => rbind (key kt (fst kv)) (fun k => rmap (optmap (fun x => (k, x))) (ser_map_value ser vt (snd kv)))) es = Ok ps ->
    exists xs, ps = map Some xs /\
      Forall2 (fun kv kx => key_text kt (fst kv) = Some (fst kx) /\ dkey kt (fst kx) = Ok (fst kv) /\ sval_eq (fst kv) (fst kv) /\
                            V (snd kv) (snd kx)) es xs.
  Proof.
    induction 1 as [|[k v] es (Hk & Hn & Hv) _ IH]; intros ps H; simpl in *.
    - injection H as <-. exists []. split; [reflexivity|constructor].
    - apply rbind_ok in H as (p & Hp & H). apply rbind_ok in H as (ps' & Hps & H). injection H as <-.
      apply rbind_ok in Hp as (s & Hs & Hp). apply rmap_ok in Hp as (ox & Hox & ->).
      rewrite (ser_map_value_not_none ser vt v Hn) in Hox. apply rmap_ok in Hox as (y & Hy & ->).
      destruct (Hk s Hs) as (K1 & K2 & K3). destruct (IH ps' Hps) as (xs & -> & Fx).
      exists ((s, y) :: xs). split; [reflexivity|]. constructor; [|exact Fx]. simpl. auto.
  Qed.
End Entries.


(* the key texts a map type-checks with are the keys of the entries written *)
Lemma entries_keys kt es (xs : list (bytes * tomlval)) (R : sval * sval -> bytes * tomlval -> Prop) :
  Forall2 (fun kv kx => key_text kt (fst kv) = Some (fst kx) /\ R kv kx) es xs ->
  somes (map (fun kv => key_text kt (fst kv)) es) = map fst xs.
Proof. induction 1 as [|kv kx es xs [H _] _ IH]; simpl; [reflexivity|]. rewrite H, IH. reflexivity. Qed.
