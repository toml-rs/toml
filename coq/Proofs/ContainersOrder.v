(* Proofs/ContainersOrder.v — order facts used by Proofs/ContainersRefine.v (property C16):
   the key order is a strict total order; a stable sort by a total preorder yields a sorted
   permutation and commutes with dropping entries. *)
From TV Require Import Base.Prelude Spec.Ordered Model.Containers.
Require Import Lia ZifyBool ZifyN ZifyNat.
From Coq Require Import Permutation.
From TV Require Import Base.BytesFacts.

(** * A. key order *)

Lemma key_compare_refl a : key_compare a a = Eq.
Proof. induction a as [|x a IH]; simpl; [reflexivity|]. rewrite N.compare_refl. exact IH. Qed.

Lemma key_compare_eq a : forall b, key_compare a b = Eq -> a = b.
Proof.
  induction a as [|x a IH]; intros [|y b]; simpl; try congruence.
  destruct (N.compare (b2n x) (b2n y)) eqn:E; try congruence.
  intro H. apply N.compare_eq_iff in E. apply b2n_inj in E. f_equal; auto.
Qed.

Lemma key_compare_antisym a : forall b, key_compare b a = CompOpp (key_compare a b).
Proof.
  induction a as [|x a IH]; intros [|y b]; simpl; try reflexivity.
  rewrite (N.compare_antisym (b2n x) (b2n y)).
  destruct (N.compare (b2n x) (b2n y)); simpl; auto.
Qed.

Lemma key_compare_lt_trans a : forall b d,
  key_compare a b = Lt -> key_compare b d = Lt -> key_compare a d = Lt.
Proof.
  induction a as [|x a IH]; intros [|y b] [|z d]; simpl; try congruence.
  destruct (N.compare (b2n x) (b2n y)) eqn:E1; destruct (N.compare (b2n y) (b2n z)) eqn:E2;
    try congruence; intros H1 H2.
  - apply N.compare_eq_iff in E1. apply N.compare_eq_iff in E2. rewrite E1, E2, N.compare_refl. eauto.
  - apply N.compare_eq_iff in E1. rewrite E1, E2. reflexivity.
  - apply N.compare_eq_iff in E2. rewrite <- E2, E1. reflexivity.
  - rewrite N.compare_lt_iff in E1, E2.
    assert (H : (b2n x < b2n z)%N) by lia. apply N.compare_lt_iff in H. rewrite H. reflexivity.
Qed.

Lemma bytes_eqb_compare a b : bytes_eqb a b = true <-> key_compare a b = Eq.
Proof.
  rewrite bytes_eqb_eq. split; [intros ->; apply key_compare_refl | apply key_compare_eq].
Qed.

Lemma key_ltb_irrefl a : key_ltb a a = false.
Proof. unfold key_ltb. rewrite key_compare_refl. reflexivity. Qed.

Lemma key_ltb_trans a b c : key_ltb a b = true -> key_ltb b c = true -> key_ltb a c = true.
Proof.
  unfold key_ltb. destruct (key_compare a b) eqn:E1; try discriminate.
  destruct (key_compare b c) eqn:E2; try discriminate. intros _ _.
  rewrite (key_compare_lt_trans a b c E1 E2). reflexivity.
Qed.

Lemma key_ltb_asym a b : key_ltb a b = true -> key_ltb b a = false.
Proof.
  intro H. destruct (key_ltb b a) eqn:E; [|reflexivity].
  pose proof (key_ltb_trans _ _ _ H E) as H2. rewrite key_ltb_irrefl in H2. discriminate.
Qed.

Lemma key_leb_total a b : key_leb a b = false -> key_leb b a = true.
Proof.
  unfold key_leb. rewrite (key_compare_antisym a b). destruct (key_compare a b); simpl; congruence.
Qed.

Lemma key_leb_trans a b c : key_leb a b = true -> key_leb b c = true -> key_leb a c = true.
Proof.
  unfold key_leb.
  destruct (key_compare a b) eqn:E1; try discriminate; intros _.
  - apply key_compare_eq in E1. subst. auto.
  - destruct (key_compare b c) eqn:E2; try discriminate; intros _.
    + apply key_compare_eq in E2. subst. rewrite E1. reflexivity.
    + rewrite (key_compare_lt_trans a b c E1 E2). reflexivity.
Qed.

(** * B. stable sort: sortedness, and commutation with dropping entries *)

Fixpoint sorted_by {A} (R : A -> A -> Prop) (l : list A) : Prop :=
  match l with
  | [] => True
  | x :: l' => Forall (R x) l' /\ sorted_by R l'
  end.

Section SortFacts.
  Context {A B : Type} (le : A -> A -> bool) (le' : B -> B -> bool) (f : A -> option B) (Q : A -> Prop).
  Hypothesis le_trans : forall a b c, le a b = true -> le b c = true -> le a c = true.
  Hypothesis le_total : forall a b, le a b = false -> le b a = true.
  Hypothesis compat : forall a b y z, Q a -> Q b -> f a = Some y -> f b = Some z -> le' y z = le a b.

  Let R := fun a b => le a b = true.

  Fixpoint pmap (l : list A) : list B :=
    match l with
    | [] => []
    | a :: l' => match f a with Some y => y :: pmap l' | None => pmap l' end
    end.

  Lemma sorted_insert_Forall (P : A -> Prop) x l : P x -> Forall P l -> Forall P (sorted_insert le x l).
  Proof.
    intros Hx Hl. induction l as [|a l IH]; simpl; [constructor; auto|].
    inversion Hl; subst. destruct (le x a); constructor; auto.
  Qed.

  Lemma stable_sort_Forall (P : A -> Prop) l : Forall P l -> Forall P (stable_sort le l).
  Proof.
    induction l as [|a l IH]; simpl; intro H; [constructor|].
    inversion H; subst. apply sorted_insert_Forall; auto.
  Qed.

  Lemma sorted_insert_sorted x l : sorted_by R l -> sorted_by R (sorted_insert le x l).
  Proof.
    induction l as [|a l IH]; simpl; intro H; [split; [constructor|exact I]|].
    destruct H as [Ha Hl]. destruct (le x a) eqn:E; simpl.
    - split; [|split; assumption]. constructor; [exact E|].
      eapply Forall_impl; [|exact Ha]. intros b Hb. unfold R in *. eapply le_trans; eauto.
    - split; [|apply IH; exact Hl]. apply sorted_insert_Forall; [apply le_total; exact E|exact Ha].
  Qed.

  Lemma stable_sort_sorted l : sorted_by R (stable_sort le l).
  Proof. induction l as [|a l IH]; simpl; [exact I|]. apply sorted_insert_sorted. exact IH. Qed.

  Lemma sorted_insert_head y l :
    Forall (fun z => le' y z = true) l -> sorted_insert le' y l = y :: l.
  Proof. destruct l as [|z l]; simpl; [reflexivity|]. intro H. inversion H; subst. rewrite H2. reflexivity. Qed.

  Lemma pmap_Forall (P : B -> Prop) l :
    Forall (fun a => forall y, f a = Some y -> P y) l -> Forall P (pmap l).
  Proof.
    induction l as [|a l IH]; simpl; intro H; [constructor|].
    inversion H; subst. destruct (f a) eqn:E; [constructor|]; auto.
  Qed.

  Lemma pmap_sorted_insert x l :
    Q x -> Forall Q l -> sorted_by R l ->
    pmap (sorted_insert le x l) =
    match f x with Some y => sorted_insert le' y (pmap l) | None => pmap l end.
  Proof.
    intros Qx. induction l as [|a l IH]; intros Ql Hs; simpl.
    - destruct (f x); reflexivity.
    - inversion Ql as [|? ? Qa Ql']; subst. destruct Hs as [Ha Hl].
      destruct (le x a) eqn:E.
      + (* x goes first *)
        simpl. destruct (f x) as [y|] eqn:Fx; [|reflexivity].
        symmetry. apply (sorted_insert_head y).
        change (Forall (fun z => le' y z = true) (pmap (a :: l))).
        apply pmap_Forall. constructor.
        * intros z Fz. rewrite (compat x a y z Qx Qa Fx Fz). exact E.
        * rewrite Forall_forall in *. intros b Hb z Fz.
          rewrite (compat x b y z Qx (Ql' b Hb) Fx Fz). eapply le_trans; [exact E|]. apply Ha; exact Hb.
      + simpl. rewrite (IH Ql' Hl).
        destruct (f x) as [y|] eqn:Fx; destruct (f a) as [z|] eqn:Fa; try reflexivity.
        simpl. rewrite (compat x a y z Qx Qa Fx Fa), E. reflexivity.
  Qed.

  Lemma pmap_stable_sort l :
    Forall Q l -> pmap (stable_sort le l) = stable_sort le' (pmap l).
  Proof.
    induction l as [|a l IH]; intro Ql; simpl; [reflexivity|].
    inversion Ql; subst.
    rewrite pmap_sorted_insert; auto using stable_sort_Forall, stable_sort_sorted.
    rewrite IH by assumption. destruct (f a); reflexivity.
  Qed.

  Lemma sorted_insert_perm x l : Permutation (sorted_insert le x l) (x :: l).
  Proof.
    induction l as [|a l IH]; simpl; [reflexivity|].
    destruct (le x a); [reflexivity|]. rewrite IH. apply perm_swap.
  Qed.
  Lemma stable_sort_perm l : Permutation (stable_sort le l) l.
  Proof.
    induction l as [|a l IH]; simpl; [reflexivity|].
    rewrite sorted_insert_perm. constructor. exact IH.
  Qed.
End SortFacts.

(* the model's sort is the same stable sort *)
Lemma im_ins_sorted_eq {V} le (x : bytes * V) m : im_ins_sorted le x m = sorted_insert le x m.
Proof. induction m as [|y m IH]; simpl; [reflexivity|]. rewrite IH. reflexivity. Qed.
Lemma im_sort_by_eq {V} le (m : imap V) : im_sort_by le m = stable_sort le m.
Proof. induction m as [|x m IH]; simpl; [reflexivity|]. rewrite im_ins_sorted_eq, IH. reflexivity. Qed.
