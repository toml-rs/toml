(* Proofs/GrammarDocReject.v — C01/C02 layers L2 + L3 for whole documents, from the grammar's
   side: on a text with a derivation toml_tok the outcome of `parse_document` is determined by
   the statements of that derivation, run through the definition rules with their side
   conditions (`drun`).  If they are well-defined, within the limits and accepted by the rules
   (as the code resolves class U1), the text is parsed and the document tree carries the data
   they denote; otherwise the parser fails with commitment at the first statement that is not —
   whatever other readings of the text one might try.  Hence the outcome can be read off ANY
   derivation of the text.  One induction over the derivation, along the loop of document.rs;
   each line through Proofs/GrammarDocComplete.v. *)
From TV Require Import Base.Prelude Base.Winnow Spec.Abnf Spec.Lex Spec.Defs Spec.Syntax.
From TV Require Import Model.Trivia Model.Tree Model.Document.

From TV Require Import Proofs.DefsEquivKv Proofs.DefsEquivSim Proofs.DefsEquivMain.
From TV Require Import Proofs.LexEquivBase Proofs.LexEquivTrivia Proofs.LexEquivKey Proofs.GrammarSep Proofs.GrammarBase Proofs.GrammarParam
                       Proofs.GrammarDocBase Proofs.GrammarDocLine Proofs.GrammarDoc Proofs.GrammarDocComplete.
From TV Require Import Proofs.DocumentOps.
Require Import Lia ZifyBool ZifyN ZifyNat.

(* ---- the statements run with their side conditions --------------------------------------------------- *)
Definition sgoodb (s : astmt) : bool := stmt_ok s && stmt_within s.

Fixpoint drun (S : sstate dval) (l : list astmt) : res (sstate dval) :=
  match l with
  | [] => ROk S
  | s :: tl =>
    if sgoodb s
    then match spec_step false S (stmt_den s) with
         | ROk S1 => drun S1 tl
         | RInvalid => RInvalid
         | RUndecided => RUndecided
         end
    else RInvalid
  end.

Lemma drun_app l1 : forall S l2,
  drun S (l1 ++ l2) = match drun S l1 with ROk S1 => drun S1 l2 | RInvalid => RInvalid | RUndecided => RUndecided end.
Proof.
  induction l1 as [|s l1 IH]; intros S l2; [reflexivity|]. cbn [app drun]. destruct (sgoodb s); [|reflexivity].
  destruct (spec_step false S (stmt_den s)); [apply IH|reflexivity|reflexivity].
Qed.

Lemma drun_decides l : forall S, drun S l <> RUndecided.
Proof.
  induction l as [|s l IH]; intros S; cbn [drun]; [discriminate|]. destruct (sgoodb s); [|discriminate].
  destruct (spec_step false S (stmt_den s)) eqn:E; [apply IH|discriminate|]. exfalso. apply (spec_step_code_decides S _ E).
Qed.

Lemma drun_ok l : forall S X, drun S l = ROk X ->
  forallb stmt_ok l = true /\ forallb stmt_within l = true /\ spec_fold false S (map stmt_den l) = ROk X.
Proof.
  induction l as [|s l IH]; intros S X H; cbn [drun] in H; [injection H as <-; auto|].
  destruct (sgoodb s) eqn:G; [|discriminate]. unfold sgoodb in G. apply andb_true_iff in G as [G1 G2].
  destruct (spec_step false S (stmt_den s)) as [S1| |] eqn:E; try discriminate.
  destruct (IH S1 X H) as (I1 & I2 & I3). cbn [forallb map]. rewrite G1, G2, I1, I2, spec_fold_cons, E. auto.
Qed.

Lemma drun_of_ok l : forall S X, forallb stmt_ok l = true -> forallb stmt_within l = true ->
  spec_fold false S (map stmt_den l) = ROk X -> drun S l = ROk X.
Proof.
  induction l as [|s l IH]; intros S X H1 H2 H3; cbn [map] in H3; [exact H3|].
  cbn [forallb] in H1, H2. apply andb_true_iff in H1 as [G1 H1]. apply andb_true_iff in H2 as [G2 H2].
  rewrite spec_fold_cons in H3. cbn [drun]. unfold sgoodb. rewrite G1, G2. cbn [andb].
  destruct (spec_step false S (stmt_den s)) as [S1| |]; try discriminate. apply IH; assumption.
Qed.

Lemma drun_one S s : drun S [s] = dstep S s.
Proof.
  cbn [drun]. unfold dstep, sgoodb. destruct (stmt_ok s && stmt_within s); [|reflexivity].
  destruct (spec_step false S (stmt_den s)); reflexivity.
Qed.

(* ---- one line ------------------------------------------------------------------------------------------------ *)
Lemma line_p_det st S i e l le r :
  item_tok e l -> rest i = e ++ le ++ r -> lend le r -> e ++ le <> [] -> depth i = 0 -> Inv st S ->
  exists b tl, rest i = b :: tl /\ lresult cuts (line_p st b) i (adv (e ++ le) i) (drun (dstate S) l).
Proof.
  intros He H Hl Hne Hd HI.
  destruct He as [|c Hc|t p a w c Ht Hw Hc|t p w c Ht Hw Hc|t p w c Ht Hw Hc]; rewrite ?drun_one.
  - (* a blank line *)
    cbn [app] in *. destruct Hl as [Hn | [-> _]]; [|congruence].
    destruct (newline_tok_head le Hn) as (b & tl & E & Hb). exists b, (tl ++ r). split; [rewrite H, E; reflexivity|].
    exists (on_ws st (pos i, pos (adv le i))), S. split; [|split; [apply Inv_on_ws, HI|reflexivity]].
    assert (Elp : line_p st b = parse_newline st) by (destruct Hb as [-> | ->]; reflexivity). rewrite Elp.
    unfold parse_newline. rewrite (pmap_ok _ _ _ _ _ (span_ok _ _ _ _ (newline_complete i le r H Hn))). reflexivity.
  - (* a comment line *)
    destruct (comment_head c Hc) as (u & Ec). exists x23, (u ++ le ++ r). split; [rewrite H, Ec; reflexivity|].
    exists (on_ws st (pos i, pos (adv (c ++ le) i))), S. split; [|split; [apply Inv_on_ws, HI|reflexivity]].
    change (line_p st x23) with (cut_err (parse_comment st)). apply cut_err_ok. unfold parse_comment.
    assert (Ecl : (comment ;;; context line_ending) i = Ok tt (adv (c ++ le) i)).
    { rewrite (bind_ok _ _ _ _ _ (comment_complete i c _ H Hc (lend_stops_non_eol le r Hl))).
      rewrite (context_ok _ _ _ _ (line_ending_complete _ le r (rest_adv c _ i H) Hl)). rewrite adv_adv. reflexivity. }
    rewrite (pmap_ok _ _ _ _ _ (span_ok _ _ _ _ Ecl)). reflexivity.
  - (* key = value *)
    destruct (keyval_tok_khead t p a Ht) as (b & t' & Et & Hb). destruct (khead_facts b Hb) as (_ & B1 & B2 & B3 & B4).
    exists b, (t' ++ (w ++ c) ++ le ++ r). split; [rewrite H, Et, <- !app_assoc; reflexivity|].
    unfold line_p. rewrite B1, B2, B3, B4. cbn [orb]. apply (keyval_line st S i t p a w c le r Ht Hw Hc H Hl Hd HI).
  - (* [table] *)
    destruct (table_tok_head false t p Ht) as (t' & Et).
    exists x5b, (t' ++ (w ++ c) ++ le ++ r). split; [rewrite H, Et, <- !app_assoc; reflexivity|].
    change (line_p st x5b) with (cut_err (table st)). apply (header_line false st S i t p w c le r Ht Hw Hc H Hl HI).
  - (* [[table]] *)
    destruct (table_tok_head true t p Ht) as (t' & Et).
    exists x5b, (t' ++ (w ++ c) ++ le ++ r). split; [rewrite H, Et, <- !app_assoc; reflexivity|].
    change (line_p st x5b) with (cut_err (table st)). apply (header_line true st S i t p w c le r Ht Hw Hc H Hl HI).
Qed.

Lemma doc_line_det st S i e l le w r :
  item_tok e l -> rest i = e ++ le ++ w ++ r -> lend le (w ++ r) -> ws_tok w -> stops wschar r -> e ++ le <> [] ->
  depth i = 0 -> Inv st S ->
  lresult cuts (doc_line st) i (adv (e ++ le ++ w) i) (drun (dstate S) l).
Proof.
  intros He H Hl Hw Hr Hne Hd HI.
  destruct (line_p_det st S i e l le (w ++ r) He H Hl Hne Hd HI) as (b & tl & Hb & Hres).
  pose proof (peek_ok _ _ _ _ (any_ok i b tl Hb)) as Epk.
  destruct (drun (dstate S) l) as [X| |]; cbn [lresult] in *.
  2,3: unfold cuts; rewrite doc_line_unfold; (eapply cuts_bind_ok; [exact Epk|]); apply cuts_bind, Hres.
  destruct Hres as (st0 & S1 & El & HI0 & EX).
  assert (R1 : rest (adv (e ++ le) i) = w ++ r) by (apply rest_adv; rewrite H, <- app_assoc; reflexivity).
  destruct (parse_ws_complete st0 _ w r R1 Hw Hr) as (sp & Ew).
  exists (on_ws st0 sp), S1. split; [|split; [apply Inv_on_ws, HI0|exact EX]].
  rewrite doc_line_unfold, (bind_ok _ _ _ _ _ Epk), (bind_ok _ _ _ _ _ El), Ew, adv_adv, <- app_assoc. reflexivity.
Qed.

(* ---- the loop ------------------------------------------------------------------------------------------------ *)
Lemma doc_loop_stop fuel st i : rest i = [] -> 0 < fuel -> doc_loop fuel st i = Ok st i.
Proof.
  intros R Hf. destruct fuel as [|f]; [lia|]. cbn [doc_loop].
  destruct (doc_line_empty st i R) as (e & j & F). rewrite F. reflexivity.
Qed.

Lemma doc_loop_next f st i st1 i1 :
  doc_line st i = Ok st1 i1 -> length (rest i1) < length (rest i) -> doc_loop (S f) st i = doc_loop f st1 i1.
Proof.
  intros El Hlt. cbn [doc_loop]. rewrite El.
  destruct (Nat.eqb (length (rest i1)) (length (rest i))) eqn:Q; [apply Nat.eqb_eq in Q; lia|reflexivity].
Qed.

Lemma doc_loop_cut_line f st i : cuts (doc_line st) i -> cuts (doc_loop (S f) st) i.
Proof. intros (e & j & F). unfold cuts. cbn [doc_loop]. rewrite F. eauto. Qed.

Lemma doc_loop_det s l : toml_tok s l -> forall fuel w s' i st S,
  s = w ++ s' -> ws_tok w -> stops wschar s' -> rest i = s' -> depth i = 0 -> length s' < fuel -> Inv st S ->
  lresult cuts (doc_loop fuel st) i (adv s' i) (drun (dstate S) l).
Proof.
  induction 1 as [e l He|e l nl t l' He Hn Ht IH]; intros fuel w s' i st S Es Hw Hs' Ri Hd Hfuel HI;
    (destruct fuel as [|f]; [lia|]); apply expression_item in He as (w1 & e' & -> & Hw1 & Hi).
  - (* the last line, ended by the end of the text *)
    assert (Hse : stops wschar e').
    { destruct (item_cases e' l Hi) as [[-> _] | (b & tl & -> & Hb)]; [exact I|exact Hb]. }
    destruct (ws_prefix_unique w1 e' w s' Hw1 Hw Hse Hs' Es) as [-> ->].
    destruct (item_cases s' l Hi) as [[-> ->] | (b & tl & Eb & Hb)].
    + exists st, S. rewrite adv_nil. split; [apply doc_loop_stop; [exact Ri|lia]|auto].
    + assert (H0 : rest i = s' ++ [] ++ [] ++ []) by (rewrite Ri, !app_nil_r; reflexivity).
      assert (Hne : s' ++ [] <> []) by (rewrite app_nil_r, Eb; discriminate).
      pose proof (doc_line_det st S i s' l [] [] [] Hi H0 (or_intror (conj eq_refl eq_refl)) eq_refl I Hne Hd HI) as Hres.
      rewrite !app_nil_r in Hres.
      destruct (drun (dstate S) l) as [X| |]; cbn [lresult] in *; [|apply doc_loop_cut_line, Hres..].
      destruct Hres as (st1 & S1 & El & HI1 & EX). exists st1, S1. split; [|auto].
      assert (R1 : rest (adv s' i) = []) by (apply rest_adv; rewrite Ri, app_nil_r; reflexivity).
      rewrite (doc_loop_next f st i _ _ El) by (rewrite R1, Ri, Eb; cbn [length]; lia).
      apply doc_loop_stop; [exact R1|]. rewrite Eb in Hfuel. cbn [length] in Hfuel. lia.
  - (* a line ended by a newline, then the rest *)
    assert (Hse : stops wschar (e' ++ nl ++ t)).
    { destruct (item_cases e' l Hi) as [[-> _] | (b & tl & -> & Hb)]; [cbn [app]; apply newline_stops_wschar, Hn|exact Hb]. }
    rewrite <- app_assoc in Es.
    destruct (ws_prefix_unique w1 (e' ++ nl ++ t) w s' Hw1 Hw Hse Hs' Es) as [-> <-].
    destruct (ws_split t) as (w' & t' & Et & Hw' & Hst').
    assert (H0 : rest i = e' ++ nl ++ w' ++ t') by (rewrite Ri, Et; reflexivity).
    assert (Hne : e' ++ nl <> []).
    { destruct (newline_tok_head nl Hn) as (b & tl & -> & _). destruct e'; discriminate. }
    pose proof (doc_line_det st S i e' l nl w' t' Hi H0 (or_introl Hn) Hw' Hst' Hne Hd HI) as Hres.
    rewrite drun_app.
    destruct (drun (dstate S) l) as [X1| |]; cbn [lresult] in Hres; [|apply doc_loop_cut_line, Hres..].
    destruct Hres as (st1 & S1 & El & HI1 & <-).
    set (i1 := adv (e' ++ nl ++ w') i) in *.
    assert (R1 : rest i1 = t') by (apply rest_adv; rewrite H0, <- !app_assoc; reflexivity).
    assert (Ll : length (rest i1) < length (rest i)).
    { rewrite R1, H0, !app_length. destruct (newline_tok_head nl Hn) as (b & tl & -> & _). cbn [length]. lia. }
    assert (Hf1 : length t' < f) by (rewrite <- R1; rewrite Ri in Ll; lia).
    pose proof (IH f w' t' i1 st1 S1 Et Hw' Hst' R1 Hd Hf1 HI1) as Hrest.
    replace (adv (e' ++ nl ++ t) i) with (adv t' i1)
      by (unfold i1; rewrite adv_adv; f_equal; rewrite Et, <- !app_assoc; reflexivity).
    unfold lresult, cuts in *. rewrite (doc_loop_next f st i _ _ El Ll). exact Hrest.
Qed.

(* ---- parse_document ---------------------------------------------------------------------------------------- *)
Theorem parse_document_det s stmts : toml_text s stmts ->
  match drun sstate0 stmts with
  | ROk (T, _) => exists d, parse_document s = POk d /\ abs_doc d = T
  | _ => exists e at_, parse_document s = PErr e (Some at_)
  end.
Proof.
  unfold toml_text. intro Ht.
  (* the byte-order mark, the leading whitespace *)
  assert (Eb : exists o bm, opt (lit bom) (new_input s) = Ok o (adv bm (new_input s)) /\ s = bm ++ strip_bom s).
  { destruct (strip_bom_cases s) as [(r & Er & ->) | [Hn ->]].
    - exists (Some bom), bom. split; [|exact Er]. apply opt_ok. apply (lit_ok bom (new_input s) r). exact Er.
    - exists None, []. split; [|reflexivity]. rewrite adv_nil. apply opt_fails, lit_fails. exact Hn. }
  destruct Eb as (o & bm & Eb & Es).
  destruct (ws_split (strip_bom s)) as (w & s' & Esb & Hw & Hs').
  set (i1 := adv bm (new_input s)).
  assert (R1 : rest i1 = w ++ s') by (apply rest_adv; cbn [new_input rest]; rewrite <- Esb; exact Es).
  destruct (parse_ws_complete state_new i1 w s' R1 Hw Hs') as (sp & Ew).
  set (i2 := adv w i1). assert (R2 : rest i2 = s') by (apply rest_adv; exact R1).
  assert (L2 : length s' < S (length (rest i2))) by (rewrite R2; lia).
  pose proof (doc_loop_det _ _ Ht _ w s' i2 (on_ws state_new sp) sstate0 Esb Hw Hs' R2 eq_refl L2 (Inv_on_ws _ _ sp Inv_init))
    as Hloop.
  change (dstate sstate0) with (@sstate0 dval) in Hloop.
  assert (Ed : forall x, doc_loop (S (length (rest i2))) (on_ws state_new sp) i2 = x ->
            document (new_input s) = (st' <- (fun _ => x) ;; eof ;;; ret st') i2).
  { intros x <-. rewrite document_unfold, (bind_ok _ _ _ _ _ Eb). fold i1. rewrite (bind_ok _ _ _ _ _ Ew). reflexivity. }
  unfold parse_document, parse_all.
  destruct (drun sstate0 stmts) as [[T cp]| |]; cbn [lresult] in Hloop.
  2,3: destruct Hloop as (e & j & El); unfold bind at 1; rewrite (Ed _ El); eexists _, _; reflexivity.
  destruct Hloop as (st' & [T1 cp1] & El & HI & EX).
  assert (R3 : rest (adv s' i2) = []) by (apply rest_adv; rewrite R2, app_nil_r; reflexivity).
  destruct (finalize_sim st' T1 cp1 HI) as (root' & Ef & Ha & _).
  exists (mkDoc root' (match st_trailing (finalized st' root') with Some sp0 => raw_with_span sp0 | None => REmpty end)).
  split.
  - rewrite (bind_ok _ _ _ _ _ (eq_trans (Ed _ El) (bind_ok _ _ _ _ _ (eof_ok _ R3)))).
    rewrite (bind_ok _ _ _ _ _ (eof_ok _ R3)). unfold ret. rewrite Ef. reflexivity.
  - unfold abs_doc. cbn [doc_root]. rewrite Ha. unfold dstate, state_map in EX. cbn [fst snd] in EX. injection EX as -> _. reflexivity.
Qed.

Theorem parse_document_complete s stmts T :
  toml_text s stmts -> forallb stmt_ok stmts = true -> within_limits stmts = true ->
  code_run (map stmt_den stmts) = Valid T ->
  exists d, parse_document s = POk d /\ abs_doc d = T.
Proof.
  intros Ht Hok Hwi Hrun. pose proof (parse_document_det s stmts Ht) as Hd.
  unfold code_run, run in Hrun. destruct (spec_fold false sstate0 (map stmt_den stmts)) as [[T0 cp]| |] eqn:Hf; try discriminate.
  injection Hrun as <-. rewrite (drun_of_ok _ _ _ Hok Hwi Hf) in Hd. exact Hd.
Qed.

(* the outcome of the parser on a text, read off ANY derivation of that text *)
Theorem parse_document_total s d stmts :
  parse_document s = POk d -> toml_text s stmts ->
  forallb stmt_ok stmts = true /\ within_limits stmts = true /\ code_run (map stmt_den stmts) = Valid (abs_doc d).
Proof.
  intros Hp Ht. pose proof (parse_document_det s stmts Ht) as Hd.
  destruct (drun sstate0 stmts) as [[T cp]| |] eqn:E.
  - destruct (drun_ok _ _ _ E) as (Hok & Hwi & Hf). destruct Hd as (d' & Hd & <-).
    rewrite Hp in Hd. injection Hd as <-. unfold code_run, run. rewrite Hf. auto.
  - destruct Hd as (e & at_ & Hd). congruence.
  - exfalso. apply (drun_decides stmts _ E).
Qed.
