(* Proofs/WFOrderDotDoc.v — sections in Display's order, part 5: the parse of ANY accepted document whose statements the
   specification decides (no step of class U1).  Through every line: the positioned sections of the state, sorted by
   position, run to the state right after the header of the open section; the open table holds the sub-tables it had
   when it was opened, then pure entries; and the printed lines of the pure entries rebuild the open table at its
   place (Proofs/WFOrderDot.v).  Hence `replay_stmts` of the parsed tree define its data, kinds included.
   The same pass, read backwards (`backs`, Proofs/WFOrderDoc.v), shows that a document whose tree holds no table made of
   dotted keys has statements with single keys only, which the specification decides: `parsed_run` gives both. *)
From TV Require Import Base.Prelude Base.Winnow Spec.Lex Spec.Defs Spec.Syntax Spec.WF.
From TV Require Import Model.Tree Model.Parse Model.Document Model.Encode.
From TV Require Import Proofs.DefsEquivBase Proofs.DefsEquivKv Proofs.DefsEquivSim Proofs.DefsEquivMain
                       Proofs.GrammarBase Proofs.GrammarParam Proofs.GrammarDocBase
                       Proofs.LexEquivBase Proofs.LexEquivTrivia Proofs.GrammarDocLine Proofs.GrammarDoc
                       Proofs.PrintBackBase Proofs.PrintBackSort Proofs.PrintBackDespan Proofs.PrintBackSecs Proofs.PrintBackDAll.
From TV Require Proofs.PrintBackDState.
From TV Require Import Proofs.WFSemDoc Proofs.WFTree Proofs.WFPrintDoc Proofs.WFParseValue
                       Proofs.WFParseState Proofs.WFParseTop Proofs.WFReplay Proofs.WFOrderBase Proofs.WFOrderState Proofs.WFOrderDoc Proofs.WFOrderTop Proofs.WFOrderDot.
From TV Require Import Proofs.KvFacts.
From TV Require Import Proofs.DocumentOps.
Require Import Lia NArith Sorting.Sorted Sorting.Permutation.

Local Notation uk2' := (uk2 anyk).

Lemma value_written i v i' : value_ i = Ok v i' -> written v.
Proof.
  intro H. set (p := repeat x00 (N.to_nat (pos i))). assert (Hi : PrintBackEnc.isrc (p ++ rest i) i).
  { exists p. split; [reflexivity|]. unfold p. rewrite repeat_length. lia. }
  destruct (value_good (p ++ rest i) i v i' Hi H) as (_ & _ & _ & Hw). exact Hw.
Qed.

Lemma sorted_snoc_key (E0 : list ent) q x y : StronglySorted klt (E0 ++ [(q, x)]) -> StronglySorted klt (E0 ++ [(q, y)]).
Proof.
  induction E0 as [|e E0 IH]; cbn [app]; intro H; [repeat constructor|]. inversion H as [|? ? Hs Hf]; subst. constructor; [apply IH, Hs|].
  rewrite Forall_app in *. destruct Hf as [H1 H2]. split; [exact H1|]. inversion H2 as [|? ? Hk _]; subst. constructor; [exact Hk|constructor].
Qed.
Lemma sorted_snoc (E : list ent) c c' : StronglySorted klt (E ++ [c]) -> (fst c < fst c')%N -> StronglySorted klt ((E ++ [c]) ++ [c']).
Proof.
  induction E as [|e E IH]; cbn [app]; intros H Hlt.
  - repeat constructor. exact Hlt.
  - inversion H as [|? ? Hs Hf]; subst. constructor; [apply IH; assumption|]. rewrite Forall_app. split; [exact Hf|]. constructor; [|constructor].
    rewrite Forall_app in Hf. destruct Hf as [_ Hf]. inversion Hf; subst. unfold klt in *. lia.
Qed.

(* ---- the sections of a state ------------------------------------------------------------------------------------------------ *)
Definition Brest (st : pstate) : list ent :=
  match st_path st with
  | [] => BbI (t_items (st_current st)) []
  | _ => Broot (st_root st) ++ BbI (t_items (st_current st)) (keys (st_path st))
  end.
Definition cur_ent (st : pstate) : ent :=
  match st_path st with
  | [] => (0%N, own_b (st_current st) [] false)
  | _ => (st_position st, own_b (st_current st) (keys (st_path st)) (st_is_array st))
  end.

Lemma hp_new : hp tbl_new.
Proof. apply hp_eq. exact I. Qed.

Lemma keys_nonempty (p : list key) : p <> [] -> keys p <> [].
Proof. destruct p; [congruence|discriminate]. Qed.

Lemma own_b_opened T0 dec pos sp P a : P <> [] -> tfl [] T0 = [] ->
  own_b (Tbl T0 dec false false pos sp) P a = [if a then SArrHeader P else SHeader P].
Proof.
  intros HP Hn. unfold own_b. cbn [t_implicit andb negb]. rewrite orb_true_r.
  assert (Hno : no_lines (Tbl T0 dec false false pos sp) = true) by (unfold no_lines; rewrite tflat_tfl; cbn [t_items]; rewrite Hn; reflexivity).
  rewrite (no_lines_stmts _ Hno), app_nil_r. destruct P; [congruence|reflexivity].
Qed.

(* ---- the statements of the open section ----------------------------------------------------------------------------------- *)
Definition cur_hdr (st : pstate) : list (stmt dval) :=
  match st_path st with
  | [] => []
  | _ => [if st_is_array st then SArrHeader (keys (st_path st)) else SHeader (keys (st_path st))]
  end.
Definition vstmts (L : list (key * item)) : list (stmt value) := map (fun pv => SKeyVal (fst pv) (snd pv)) (map vline (tfl [] L)).

Lemma lines_bridge t T0 L : t_items t = T0 ++ L -> Forall is_sec T0 -> line_stmts dval (sb_tbl t) = map (stmt_map absv) (vstmts L).
Proof.
  intros Hit Hsec. unfold line_stmts. rewrite <- tflat_lines, tflat_tfl, Hit, tfl_app, (tfl_secs [] T0 Hsec). cbn [app]. unfold vstmts.
  rewrite !map_map. apply map_ext. intros [q x]. reflexivity.
Qed.

Lemma cur_ent_snd st T0 L : t_implicit (st_current st) = false -> t_items (st_current st) = T0 ++ L -> Forall is_sec T0 ->
  snd (cur_ent st) = cur_hdr st ++ map (stmt_map absv) (vstmts L).
Proof.
  intros Hi Hit Hsec. unfold cur_ent, cur_hdr. destruct (st_path st) as [|k0 pth]; cbn [snd]; unfold own_b; rewrite (lines_bridge _ _ _ Hit Hsec).
  - reflexivity.
  - rewrite Hi. cbn [andb negb keys map]. rewrite orb_true_r. reflexivity.
Qed.

Lemma nodup_app_disj {A} (a b : list A) : NoDup (a ++ b) -> NoDup a /\ NoDup b /\ (forall x, In x b -> ~ In x a).
Proof.
  induction a as [|y a IH]; cbn [app]; intro H; [split; [constructor|split; [exact H|intros x _ []]]|].
  inversion H as [|? ? Hy Hn]; subst. destruct (IH Hn) as (H1 & H2 & H3). split; [constructor; [intro X; apply Hy, in_or_app; left; exact X|exact H1]|].
  split; [exact H2|]. intros x Hx [->|Hin]; [apply Hy, in_or_app; right; exact Hx|exact (H3 x Hx Hin)].
Qed.

Lemma abs_items_keys m : map fst (abs_items m) = map kk m.
Proof. unfold abs_items. rewrite map_map. reflexivity. Qed.
Lemma abs_items_app a b : abs_items (a ++ b) = abs_items a ++ abs_items b.
Proof. apply map_app. Qed.

(* ---- the invariant -------------------------------------------------------------------------------------------------------- *)
Record dinv (st : pstate) : Prop := mk_dinv {
  di_E : exists E0 Th T0 L,
           Permutation (Brest st) E0 /\ StronglySorted klt (E0 ++ [cur_ent st])
           /\ t_items (st_current st) = T0 ++ L /\ Forall is_sec T0 /\ all_P nentry T0 /\ pure_items L
           /\ spec_fold true (dstate sstate0) (flat_map snd E0 ++ cur_hdr st) = ROk (dstate (Th, keys (st_path st)))
           /\ PLv st (abs_items T0) = ROk (Th, tt);
  di_pos : fst (cur_ent st) = st_position st;
  di_root : uk2' (st_root st) /\ hp (st_root st) /\ t_dotted (st_root st) = false /\ t_position (st_root st) = None /\ nls (st_root st);
  di_cur : cur_ok (st_current st);
  di_path : match st_path st with
            | [] => t_position (st_current st) = None /\ t_items (st_root st) = []
            | path => t_position (st_current st) = Some (st_position st)
                      /\ (st_is_array st = false ->
                          exists ppath k par, pop_key path = Some (ppath, k) /\ reach (st_root st) ppath = Some par /\ kv_get (t_items par) (k_key k) = None)
            end
}.

Lemma nls_new : nls tbl_new.
Proof. split; [exact I|intros _ _; constructor]. Qed.

Lemma dinv_init : dinv state_new.
Proof.
  constructor.
  - exists [], [], [], []. split; [reflexivity|]. split; [repeat constructor|]. split; [reflexivity|]. split; [constructor|]. split; [exact I|]. split; [exact I|].
    split; reflexivity.
  - reflexivity.
  - split; [apply uk2_new|]. split; [apply hp_new|]. split; [reflexivity|]. split; [reflexivity|apply nls_new].
  - split; [reflexivity|]. split; [reflexivity|]. split; [apply hp_eq; exact I|apply uk2_eq; split; constructor].
  - cbn. split; reflexivity.
Qed.

Lemma dinv_on_ws st sp : dinv st -> dinv (on_ws st sp).
Proof. intros [H2 H3 H4 H5 H6]. constructor; [exact H2|exact H3|exact H4|exact H5|exact H6]. Qed.

(* the whole run, the lines of the open section included *)
Lemma dinv_full st S : Inv st S -> dinv st ->
  exists E0, Permutation (Brest st) E0 /\ StronglySorted klt (E0 ++ [cur_ent st])
             /\ spec_fold true (dstate sstate0) (flat_map snd (E0 ++ [cur_ent st])) = ROk (dstate S).
Proof.
  intros HI [(E0 & Th & T0 & L & HP & HS & Hit & Hsec & HnT & Hpure & HR & HPL) _ _ (Hcd & Hci & Hhc & Huc) _].
  exists E0. split; [exact HP|]. split; [exact HS|].
  rewrite flat_map_app. cbn [flat_map]. rewrite app_nil_r, (cur_ent_snd st T0 L Hci Hit Hsec), app_assoc, GrammarDocBase.spec_fold_app, HR.
  unfold dstate. rewrite spec_fold_smap. destruct S as [T cp]. destruct (Inv_PLv st T cp HI) as [-> HT].
  apply uk2_eq in Huc as [Hn Hs]. rewrite Hit in Hn, Hs. rewrite map_app in Hn. destruct (nodup_app_disj _ _ Hn) as (_ & HnL & Hdisj).
  apply Forall_app in Hs as [_ HsL].
  assert (Hfold : inline_fold (abs_items T0) (map vline (tfl [] L)) = ROk (abs_items T0 ++ abs_items L)).
  { apply (pure_fold L (abs_items T0) Hpure HsL HnL). intros x Hx. rewrite abs_items_keys. apply Hdisj, Hx. }
  destruct (lines_run st _ _ _ Th HPL Hfold) as (Xc' & HX & Hrun). unfold vstmts. rewrite Hrun. cbn [rmap].
  rewrite abs_tbl_eq, Hit, abs_items_app, HX in HT. injection HT as <-. reflexivity.
Qed.

(* ---- a key/value line ------------------------------------------------------------------------------------------------------ *)
Lemma keyval_step st S path k v st' :
  on_keyval_sp st path k (IValue v) = COk st' -> written v -> Inv st S -> dinv st ->
  spec_step true S (SKeyVal (keys path ++ [k_key k]) v) <> RUndecided -> dinv st'.
Proof.
  intros H Hw HI [(E0 & Th & T0 & L & HP & HS & Hit & Hsec & HnT & Hpure & HR & HPL) Hpos Hroot (Hcd & Hci & Hhc & Huc) Hpath] Hdec.
  destruct (PrintBackDState.on_keyval_all anyk st path k v st' H Huc (all_anyk _)) as (_ & _ & _ & _ & _ & _ & Hu' & _).
  apply on_keyval_sp_inv in H as (st0 & Eo & ->).
  destruct S as [T cp].
  destruct (keyval_shape st path k v st0 T0 L Eo Hit Hsec Hpure Hw) as (L1 & Hfree & Hit1 & Hp1 & R1 & R2 & R3 & R4 & F1 & F2 & F3).
  { intros k1 p1 k0 sub Epath G Hi. apply (u1_excluded st T cp path k v k1 p1 k0 sub HI Hdec Epath); [rewrite Hit, kv_get_app, G; reflexivity|exact Hi|].
    apply (is_sec_get _ _ _ _ Hsec G). }
  destruct (sds_shape path (st_current st0) (item_end (IValue v)) T0 L1 Hit1 Hp1 Hfree) as (L2 & Hit2 & Hp2).
  destruct (hframe_flags _ _ (set_dotted_spans_hframe (st_current st0) path (item_end (IValue v)))) as (G1 & G2 & G3).
  cbn [st_current] in Hu'. set (cur2 := set_dotted_spans (st_current st0) path (item_end (IValue v))) in *.
  assert (HB : forall P, BbI (t_items cur2) P = BbI (t_items (st_current st)) P).
  { intro P. rewrite Hit2, Hit, !BbI_app, (BbI_pure L2 Hp2), (BbI_pure L Hpure). reflexivity. }
  apply hp_eq in Hhc. rewrite Hit in Hhc. apply all_P_app in Hhc as [HhT _].
  constructor; cbn [st_root st_current st_path st_position st_is_array]; rewrite ?R1, ?R2, ?R3, ?R4.
  - exists E0, Th, T0, L2. unfold Brest, cur_ent, cur_hdr, PLv in *. cbn [st_root st_current st_path st_position st_is_array]. rewrite ?R1, ?R2, ?R3, ?R4.
    destruct (st_path st) as [|k0 pth] eqn:Epath; rewrite HB; (split; [exact HP|]); (split; [apply (sorted_snoc_key E0 _ _ _ HS)|]); auto 10.
  - unfold cur_ent in *. cbn [st_root st_current st_path st_position st_is_array]. rewrite ?R1, ?R2, ?R3, ?R4. destruct (st_path st); exact Hpos.
  - exact Hroot.
  - split; [congruence|]. split; [congruence|]. split; [|exact Hu'].
    apply hp_eq. rewrite Hit2. apply all_P_app. split; [exact HhT|apply pure_hentries, Hp2].
  - destruct (st_path st) as [|k0 pth].
    + destruct Hpath as (H1 & H2). split; [congruence|exact H2].
    + destruct Hpath as [H1 H2]. split; [congruence|exact H2].
Qed.

(* ---- a header line ---------------------------------------------------------------------------------------------------------- *)
Lemma hdr_strict {V} (S : sstate V) (arr : bool) (p : list bytes) :
  spec_step true S (if arr then SArrHeader p else SHeader p) = spec_step false S (if arr then SArrHeader p else SHeader p).
Proof. destruct S, arr; reflexivity. Qed.

Lemma open_dinv st2 root' T0 path dec sp arr S1 E c :
  Inv (open_table st2 root' (Tbl T0 decor_default false false None None) path dec sp arr) S1 ->
  path <> [] -> fst c = st_position st2 ->
  Permutation (Broot root' ++ BbI T0 (keys path)) (E ++ [c]) -> StronglySorted klt (E ++ [c]) ->
  spec_fold true (dstate sstate0) (flat_map snd (E ++ [c]) ++ [if arr then SArrHeader (keys path) else SHeader (keys path)]) = ROk (dstate S1) ->
  uk2' root' -> hp root' -> t_dotted root' = false -> t_position root' = None -> nls root' ->
  uks2 anyk T0 -> NoDup (map kk T0) -> all_P hentry T0 -> Forall is_sec T0 -> all_P nentry T0 ->
  (arr = false -> exists ppath k par, pop_key path = Some (ppath, k) /\ reach root' ppath = Some par /\ kv_get (t_items par) (k_key k) = None) ->
  dinv (open_table st2 root' (Tbl T0 decor_default false false None None) path dec sp arr).
Proof.
  intros HI Hne Hc HP HS HR Hur Hhr Hrd Hrp Hrn Hs0 Hn0 Hh0 Hsec0 Hnt0 Hreach.
  destruct S1 as [T1 cp1]. destruct (Inv_PLv _ T1 cp1 HI) as [-> HT]. rewrite abs_tbl_eq in HT.
  unfold open_table in *. cbn [t_items st_current st_path] in *.
  set (pos' := (st_position st2 + 1)%N) in *.
  assert (Hown : own_b (Tbl T0 dec false false (Some pos') (Some sp)) (keys path) arr = [if arr then SArrHeader (keys path) else SHeader (keys path)])
    by (apply own_b_opened; [apply keys_nonempty, Hne|apply tfl_secs, Hsec0]).
  constructor; cbn [st_root st_current st_path st_position st_is_array].
  - exists (E ++ [c]), T1, T0, []. unfold Brest, cur_ent, cur_hdr. cbn [st_root st_current st_path st_position st_is_array t_items].
    destruct path as [|k0 pth]; [congruence|]. rewrite Hown. split; [exact HP|]. split; [apply sorted_snoc; [exact HS|cbn [fst]; lia]|].
    split; [rewrite app_nil_r; reflexivity|]. split; [exact Hsec0|]. split; [exact Hnt0|]. split; [exact I|]. split; [exact HR|exact HT].
  - unfold cur_ent. cbn [st_path st_position]. destruct path; [congruence|reflexivity].
  - auto.
  - split; [reflexivity|]. split; [reflexivity|]. split; [apply hp_eq; exact Hh0|apply uk2_eq; split; assumption].
  - destruct path as [|k0 pth]; [congruence|]. split; [reflexivity|exact Hreach].
Qed.

(* the tree with the open section put back *)
Lemma finalize_Broot st st1 E0 : finalize_table st = COk st1 -> dinv st -> Permutation (Brest st) E0 ->
  exists root1, st1 = finalized st root1 /\ uk2' root1 /\ hp root1 /\ t_dotted root1 = false /\ t_position root1 = None
                /\ Permutation (Broot root1) (E0 ++ [cur_ent st]) /\ (nlr (st_current st) -> nls root1).
Proof.
  intros Ef [_ _ (Hur & Hhr & Hrd & Hrp & Hrn) Hcur Hpath] HP. pose proof Hcur as (Hcd & Hci & Hhc & Huc). unfold Brest, cur_ent in *.
  destruct (st_path st) as [|k0 pth] eqn:Epath.
  - rewrite finalize_table_eq, Epath in Ef. cbn [pop_key rev] in Ef. destruct (tbl_is_empty (st_root st)); [|discriminate]. injection Ef as <-.
    destruct Hpath as (Hq & _). exists (st_current st). split; [reflexivity|]. repeat (split; [assumption|]).
    split; [unfold Broot; rewrite <- HP; apply Permutation_cons_append|]. intro Hcn. split; [exact Hcn|intro X; congruence].
  - destruct Hpath as [Hq Hfree]. destruct (pop_key_nonempty (k0 :: pth) ltac:(discriminate)) as (ppath & kl & Ep). rewrite <- Epath in *.
    assert (Hfree' : st_is_array st = false -> exists par, reach (st_root st) ppath = Some par /\ kv_get (t_items par) (k_key kl) = None).
    { intro Ea. destruct (Hfree Ea) as (pp & kk0 & par & Ep' & Hr & Hg). rewrite Ep in Ep'. injection Ep' as <- <-. eauto. }
    destruct (finalize_B st st1 ppath kl Ep Ef Hur Hhr Hcur ltac:(rewrite Hq; discriminate) Hfree') as (E1 & Hlf & Hu1 & Hh1 & Hperm).
    exists (st_root st1). split; [exact E1|]. split; [exact Hu1|]. split; [exact Hh1|]. destruct Hlf as (_ & Hd1 & Hq1 & _).
    split; [congruence|]. split; [congruence|]. split; [|intro Hcn; apply (finalize_nls st st1 ppath kl Ep Ef Hrn Hcn Hcd Hci Hfree')].
    rewrite Hperm, Bb_eq. unfold own_e. rewrite Hcd, Hq. rewrite <- HP.
    rewrite <- app_assoc. apply Permutation_app_head. cbn [app]. apply Permutation_cons_append.
Qed.

Lemma header_step arr st S pre k tr sp st' : on_header arr st (pre ++ [k]) tr sp = COk st' -> Inv st S -> dinv st -> dinv st'.
Proof.
  intros H HI Hd. destruct (dinv_full st S HI Hd) as (E0 & HP & HS & HR).
  pose proof Hd as [(_ & _ & T0 & L & _ & _ & Hit & Hsec & HnT & Hpure & _ & _) Hpos _ _ _].
  destruct (hdr_step_sound arr st S pre k tr sp st' HI H) as (S1 & Es & HI1).
  apply (step_to_data false) in Es.
  assert (Est : stmt_map absv (hdr_stmt arr (keys pre ++ [k_key k])) = (if arr then SArrHeader (keys (pre ++ [k])) else SHeader (keys (pre ++ [k]))))
    by (unfold keys; rewrite map_app; destruct arr; reflexivity).
  rewrite Est, <- hdr_strict in Es. clear Est.
  assert (Hne : pre ++ [k] <> []) by (destruct pre; discriminate).
  unfold on_header in H. destruct (pre ++ [k]) as [|k1 p1] eqn:Epk; [congruence|]. rewrite <- Epk in *.
  destruct (finalize_table st) as [st1| |] eqn:Ef; try discriminate.
  destruct (finalize_Broot st st1 E0 Ef Hd HP) as (root1 & -> & Hu1 & Hh1 & Hd1 & Hq1 & Hfull & Hn1).
  assert (Hcn : nlr (st_current st)) by (apply nlr_eq; rewrite Hit; apply all_P_app; split; [exact HnT|apply pure_nentries, Hpure]).
  specialize (Hn1 Hcn). unfold take_trailing in H. cbv zeta in H. cbn [finalized st_root st_position st_current st_is_array st_path st_trailing] in H.
  set (st2 := mkState root1 None (st_position st) tbl_new (st_is_array st) []) in *.
  assert (Hrun : spec_fold true (dstate sstate0) (flat_map snd (E0 ++ [cur_ent st]) ++ [if arr then SArrHeader (keys (pre ++ [k])) else SHeader (keys (pre ++ [k]))]) = ROk (dstate S1)).
  { rewrite GrammarDocBase.spec_fold_app, HR. cbn [spec_fold]. rewrite Es. reflexivity. }
  destruct arr.
  - destruct (start_array_B st2 (pre ++ [k]) _ sp st' pre k H (pop_key_app pre k) Hu1 Hh1) as (Est' & Hlf & Hu' & Hh' & Hperm).
    pose proof (start_array_nls st2 (pre ++ [k]) _ sp st' H Hn1) as Hn'.
    rewrite Est' in HI1 |- *. cbn [st_current st2] in *. change tbl_new with (Tbl [] decor_default false false None None) in *.
    destruct Hlf as (_ & Hd' & Hq' & _).
    apply (open_dinv st2 (st_root st') [] (pre ++ [k]) _ sp true S1 E0 (cur_ent st) HI1 Hne Hpos); try assumption.
    + cbn [BbI flat_map]. rewrite app_nil_r, Hperm. exact Hfull.
    + rewrite Hd'. exact Hd1.
    + rewrite Hq'. exact Hq1.
    + constructor.
    + constructor.
    + exact I.
    + constructor.
    + exact I.
    + discriminate.
  - destruct (start_table_B st2 (pre ++ [k]) _ sp st' pre k H (pop_key_app pre k) Hu1 Hh1 eq_refl)
      as (T0' & Est' & Hs0 & Hn0 & Hh0 & Hl0 & Hlf & Hu' & Hh' & Hperm & par & Hr & Hg).
    destruct (start_table_nls st2 (pre ++ [k]) _ sp st' H Hn1 eq_refl) as (Hn' & Hsec' & Hnt').
    rewrite Est' in HI1, Hsec', Hnt' |- *. cbn [open_table st_current t_items] in Hsec', Hnt'. destruct Hlf as (_ & Hd' & Hq' & _).
    apply (open_dinv st2 (st_root st') T0' (pre ++ [k]) _ sp false S1 E0 (cur_ent st) HI1 Hne Hpos); try assumption.
    + rewrite Hperm. exact Hfull.
    + rewrite Hd'. exact Hd1.
    + rewrite Hq'. exact Hq1.
    + intros _. exists pre, k, par. split; [apply pop_key_app|]. auto.
Qed.

(* ---- one line, the loop: GrammarDoc.v's pass, with the statements it reads and what they decide ------------------------ *)
Definition dec (S : sstate value) (l : list astmt) : Prop := spec_fold true (dstate S) (map stmt_den l) <> RUndecided.

Lemma dec_app S S1 l1 l2 : lsim S S1 l1 -> dec S (l1 ++ l2) -> dec S l1 /\ dec S1 l2.
Proof.
  intros (F1 & _ & _) H. unfold dec in *. rewrite map_app, GrammarDocBase.spec_fold_app in H.
  assert (D1 : spec_fold true (dstate S) (map stmt_den l1) <> RUndecided) by (intro E; apply H; rewrite E; reflexivity).
  split; [exact D1|]. rewrite <- (spec_fold_strict_code _ _ D1), F1 in H. exact H.
Qed.

Definition keeps (st st1 : pstate) (S : sstate value) (l : list astmt) : Prop := dec S l -> dinv st -> dinv st1.

(* statements with a single key: the two readings of class U1 agree on them *)
Definition simple_stmt (x : stmt dval) : Prop := match x with SKeyVal p _ => exists k, p = [k] | _ => True end.
Lemma simple_strict : forall (l : list (stmt dval)) S, Forall simple_stmt l -> spec_fold true S l = spec_fold false S l.
Proof.
  induction l as [|x l IH]; intros S H; [reflexivity|]. inversion H as [|? ? Hx Hl]; subst. cbn [spec_fold].
  assert (E : spec_step true S x = spec_step false S x).
  { destruct S as [t cur]. destruct x as [p|p|p v]; try reflexivity. destruct Hx as [k ->]. reflexivity. }
  rewrite E. destruct (spec_step false S x); cbn [rbind]; [apply IH, Hl|reflexivity|reflexivity].
Qed.

(* read backwards: a state without tables made of dotted keys comes from such a state, by statements with undotted keys *)
Definition backs (st st1 : pstate) (l : list astmt) : Prop :=
  gi st -> gi st1 /\ (nodot_st st1 = true -> nodot_st st = true /\ Forall simple_stmt (map stmt_den l)).
Lemma backs_nil st : backs st st [].
Proof. intro Hg. split; [exact Hg|]. intro Hn. split; [exact Hn|constructor]. Qed.
Lemma backs_app a b c l l' : backs a b l -> backs b c l' -> backs a c (l ++ l').
Proof.
  intros H1 H2 Hg. destruct (H1 Hg) as [Hgb Hb]. destruct (H2 Hgb) as [Hgc Hc]. split; [exact Hgc|]. intro Hn.
  destruct (Hc Hn) as [Hnb Hl']. destruct (Hb Hnb) as [Hna Hl]. split; [exact Hna|]. rewrite map_app. apply Forall_app. auto.
Qed.

Lemma parse_keyval_written i path k it i1 : parse_keyval i = Ok (path, (k, it)) i1 -> exists v, it = IValue v /\ written v.
Proof.
  rewrite GrammarDocLine.parse_keyval_unfold. intro H. apply bind_inv in H as (kp & j1 & _ & H).
  apply bind_inv in H as ([[pre v] suf] & j2 & H2 & H).
  apply cut_err_inv in H2. apply bind_inv in H2 as (y & k1 & _ & H2). apply bind_inv in H2 as (pre' & k2 & _ & H2).
  apply bind_inv in H2 as (v' & k3 & E3 & H2). pose proof (value_written _ _ _ E3) as Hw.
  apply bind_inv in H2 as (suf' & k4 & _ & H2). apply ret_inv in H2 as [E _]. injection E as -> -> ->.
  destruct (pop_key kp) as [[pth kk0]|]; [|discriminate]. apply ret_inv in H as [E _]. injection E as <- <- ->.
  eexists. split; [reflexivity|apply written_decorate, Hw].
Qed.

Lemma keyval_sound2 st i st1 i1 S : keyval st i = Ok st1 i1 -> depth i = 0 -> Inv st S ->
  exists w0 e l le S1, ws_tok w0 /\ item_tok e l /\ splits i (w0 ++ e ++ le) i1 /\ lend le (rest i1)
                       /\ Inv st1 S1 /\ lsim S S1 l /\ keeps st st1 S l /\ backs st st1 l.
Proof.
  unfold keyval. intros H Hd HI. apply try_map_inv in H as ([path [k it]] & H & Hst).
  destruct (parse_keyval_written _ _ _ _ _ H) as (v2 & Eit & Hw).
  apply parse_keyval_sound in H as (w0 & t & p & a & w & c & le & Hw0 & Ht & Hw' & Hc & Sp & Hl & Hlen & [Hp (v & Hit & Hv)]).
  cbn [fst snd] in Hp, Hit, Hv. rewrite Eit in Hit. injection Hit as <-. subst it. rewrite Hd in Hv.
  destruct (on_keyval_sp st path k (IValue v2)) as [st'| |] eqn:E; try discriminate. cbn [lift_state] in Hst. injection Hst as <-.
  destruct (kv_step_sound st S path k v2 st' HI E) as (S1 & Es & HI1).
  exists w0, (t ++ w ++ c), [SKeyVal p a], le, S1. split; [exact Hw0|]. split; [apply it_keyval; assumption|].
  split; [exact Sp|]. split; [exact Hl|]. split; [exact HI1|].
  destruct Hv as (Ha & Hok & Hwi & _). split; [|split].
  - apply (lsim_one S S1 _ (SKeyVal p a) Es (kv_stmt_den path k v2 p a Hp Ha)); cbn [stmt_ok stmt_within]; [exact Hok|].
    rewrite (ltb_true _ _ Hlen), Hwi. reflexivity.
  - intros Hdec Hdi. apply (keyval_step st S path k v2 st' E Hw HI Hdi). intro X. apply Hdec. cbn [map spec_fold].
    rewrite <- (kv_stmt_den path k v2 p a Hp Ha). unfold dstate. rewrite spec_step_smap, X. reflexivity.
  - intro Hg. split; [apply (gi_keyval _ _ _ _ _ E Hg)|]. intro Hn. destruct (keyval_back _ _ _ _ _ E Hn) as [-> Hn0]. split; [exact Hn0|].
    constructor; [exists (k_key k); exact Hp|constructor].
Qed.

Lemma header_sound2 arr st i st1 i1 S : header arr st i = Ok st1 i1 -> Inv st S ->
  exists e l le S1, item_tok e l /\ splits i (e ++ le) i1 /\ lend le (rest i1) /\ Inv st1 S1 /\ lsim S S1 l /\ keeps st st1 S l /\ backs st st1 l.
Proof.
  rewrite header_unfold. intros H HI. apply try_map_inv in H as ([[kp sp] tr] & H & Hst).
  apply header_text_sound in H as (t & p & w & c & le & Ht & Hw & Hc & Sp & Hl & Hp & Hlen & Hne).
  destruct (on_header arr st kp tr sp) as [st'| |] eqn:E; try discriminate. cbn [lift_state] in Hst. injection Hst as <-.
  destruct (pop_key_nonempty kp Hne) as (pre & k & Ep). pose proof (pop_key_some _ _ _ Ep) as Ekp. subst kp.
  destruct (hdr_step_sound arr st S pre k tr sp st' HI E) as (S1 & Es & HI1).
  rewrite keys_app in Hp. cbn [keys map] in Hp. fold (keys pre) in Hp.
  exists (t ++ w ++ c), [if arr then SArrHeader p else SHeader p], le, S1.
  split; [destruct arr; [apply it_arr|apply it_std]; assumption|]. split; [exact Sp|]. split; [exact Hl|]. split; [exact HI1|].
  rewrite Hp in Es. split; [|split].
  - apply (lsim_one S S1 _ _ Es (hdr_stmt_den arr p)); destruct arr; cbn [stmt_ok stmt_within]; try reflexivity;
      apply ltb_true; rewrite <- Hp, app_length; unfold keys; rewrite map_length; rewrite app_length in Hlen; exact Hlen.
  - intros _ Hdi. apply (header_step arr st S pre k tr sp st' E HI Hdi).
  - intro Hg. split; [apply (gi_header _ _ _ _ _ _ _ E Hg)|]. intro Hn. destruct Hg as (_ & _ & Hnf).
    split; [apply (header_back _ _ _ _ _ _ E Hnf Hn)|]. constructor; [destruct arr; exact I|constructor].
Qed.

Lemma keeps_ws st S sp : keeps st (on_ws st sp) S [] /\ backs st (on_ws st sp) [].
Proof. split; [intros _ H; apply dinv_on_ws, H|exact (backs_nil st)]. Qed.

Lemma line_read_sound2 st i st1 i1 S : line_read st i i1 st1 -> depth i = 0 -> Inv st S ->
  exists w0 e l le S1, ws_tok w0 /\ item_tok e l /\ splits i (w0 ++ e ++ le) i1 /\ lend le (rest i1)
                       /\ Inv st1 S1 /\ lsim S S1 l /\ keeps st st1 S l /\ backs st st1 l.
Proof.
  intros Hr Hd HI. destruct (line_read_parsers _ _ _ _ Hr) as [H|[H|[[arr H]|H]]].
  - unfold parse_comment in H. apply pmap_inv in H as (sp & H & ->).
    apply span_inv in H as (u & H & _). apply bind_inv in H as (x & j1 & H1 & H2).
    apply comment_sound in H1 as (c & Hc & S1 & _). apply context_inv, line_ending_sound in H2 as (le & S2 & Hl).
    exists [], c, [], le, S. split; [reflexivity|]. split; [apply it_comment, Hc|].
    split; [exact (splits_trans _ _ _ _ _ S1 S2)|]. split; [exact Hl|]. split; [apply Inv_on_ws, HI|]. split; [apply lsim_nil|apply keeps_ws].
  - unfold parse_newline in H. apply pmap_inv in H as (sp & H & ->). apply span_inv in H as (u & H & _).
    apply newline_sound in H as (nl & Hn & S1).
    exists [], [], [], nl, S. split; [reflexivity|]. split; [apply it_blank|]. split; [exact S1|].
    split; [left; exact Hn|]. split; [apply Inv_on_ws, HI|]. split; [apply lsim_nil|apply keeps_ws].
  - destruct (header_sound2 arr st i st1 i1 S H HI) as (e & l & le & S1 & He & Sp & Hl & HI1 & Hs & Hk & Hb).
    exists [], e, l, le, S1. split; [reflexivity|]. auto 10.
  - apply (keyval_sound2 st i st1 i1 S H Hd HI).
Qed.

Lemma doc_line_sound2 st i st1 i1 S : doc_line st i = Ok st1 i1 -> depth i = 0 -> Inv st S ->
  exists w0 e l le w S1,
    ws_tok w0 /\ item_tok e l /\ ws_tok w /\ splits i (w0 ++ e ++ le ++ w) i1
    /\ (newline_tok le \/ (le = [] /\ w = [] /\ rest i1 = []))
    /\ Inv st1 S1 /\ lsim S S1 l /\ keeps st st1 S l /\ backs st st1 l.
Proof.
  intros H Hd HI. apply doc_line_read in H as (st0 & j1 & sp & Hr & H3 & ->).
  destruct (line_read_sound2 st i st0 j1 S Hr Hd HI) as (w0 & e & l & le & S1 & Hw0 & He & Sp & Hl & HI1 & Hs & Hk & Hb).
  apply GrammarValueSound.span_ws_inv in H3 as (w & Hw & Sw & _).
  exists w0, e, l, le, w, S1. split; [exact Hw0|]. split; [exact He|]. split; [exact Hw|].
  split; [|split; [|split; [apply Inv_on_ws, HI1|split; [exact Hs|split; [intros Hdec Hdi; apply dinv_on_ws, (Hk Hdec Hdi)|exact Hb]]]]].
  - pose proof (splits_trans _ _ _ _ _ Sp Sw) as S'. rewrite <- !app_assoc in S'. exact S'.
  - destruct Hl as [Hn | [-> Hr0]]; [left; exact Hn|right]. destruct Sw as [R E]. rewrite Hr0 in R.
    destruct w; [|discriminate]. cbn [app] in R. split; [reflexivity|]. split; [reflexivity|]. symmetry. exact R.
Qed.

Lemma doc_loop_sound2 : forall fuel st i st' i' S, doc_loop fuel st i = Ok st' i' -> depth i = 0 -> Inv st S ->
  exists t l S', splits i t i' /\ dlines t l /\ Inv st' S' /\ lsim S S' l /\ keeps st st' S l /\ backs st st' l.
Proof.
  induction fuel as [|f IH]; intros st i st' i' S H Hd HI; [discriminate|]. cbn [doc_loop] in H.
  destruct (doc_line st i) as [st1 i1|e j|e j|s] eqn:E; try discriminate.
  - destruct (Nat.eqb (length (rest i1)) (length (rest i))); [discriminate|].
    destruct (doc_line_sound2 st i st1 i1 S E Hd HI) as (w0 & e & l & le & w & S1 & Hw0 & He & Hw & Sp & Hle & HI1 & Hs & Hk & Hb).
    assert (Hd1 : depth i1 = 0) by (rewrite (splits_depth _ _ _ Sp); exact Hd).
    destruct Hle as [Hn | (-> & -> & R1)].
    + destruct (IH st1 i1 st' i' S1 H Hd1 HI1) as (t & l' & S' & St & Hdl & HI' & Hs' & Hk' & Hb').
      exists ((w0 ++ e ++ le ++ w) ++ t), (l ++ l'), S'. split; [exact (splits_trans _ _ _ _ _ Sp St)|].
      split; [|split; [exact HI'|split; [exact (lsim_app _ _ _ _ _ Hs Hs')|split; [|exact (backs_app _ _ _ _ _ Hb Hb')]]]].
      * replace ((w0 ++ e ++ le ++ w) ++ t) with (w0 ++ e ++ le ++ w ++ t) by (rewrite <- !app_assoc; reflexivity).
        apply dl_cons; assumption.
      * intros Hdec Hdi. destruct (dec_app _ _ _ _ Hs Hdec) as [D1 D2]. exact (Hk' D2 (Hk D1 Hdi)).
    + destruct (doc_loop_at_end f st1 i1 st' i' R1 H) as [-> ->].
      exists (w0 ++ e), l, S1. rewrite !app_nil_r in Sp. split; [exact Sp|]. split; [apply dl_last; assumption|]. auto.
  - injection H as <- <-. exists [], [], S. split; [apply splits_nil|]. split; [apply dl_nil|]. split; [exact HI|]. split; [apply lsim_nil|].
    split; [intros _ Hdi; exact Hdi|apply backs_nil].
Qed.

(* ---- the statements of an accepted text: if the specification decides them, the sections in Display's order define the
   document's data; and it does decide them when no key/value line has a dotted key -------------------------------------- *)
Lemma parsed_run s d : parse_document s = POk d ->
  exists l, toml_text s l
            /\ (verdict l <> Undecided -> spec_run (replay_stmts (doc_root d)) = Valid (abs_doc d))
            /\ (nodot (doc_root d) = true -> verdict l <> Undecided).
Proof.
  intro H. destruct (parse_document_inv s d H) as (o & i1 & stw & i2 & stl & i3 & st' & Eb & Ew & El & Rend & Ef & ->). cbn [doc_root] in *.
  apply parse_ws_inv in Ew as (w0 & sp & Hw0 & Sw & _ & ->).
  assert (Sb : exists bm, splits (new_input s) bm i1 /\ strip_bom s = w0 ++ rest i2).
  { apply opt_inv in Eb as [(x & -> & Eb) | (-> & -> & (e & j & F))].
    - apply lit_inv in Eb as [_ Sb]. exists bom. split; [exact Sb|]. destruct Sb as [R _]. cbn [new_input rest] in R.
      destruct (strip_bom_cases s) as [(r & Er & ->) | [Hn _]]; [|exfalso; apply (Hn _ R)].
      rewrite Er in R. apply app_inv_head in R. subst r. apply Sw.
    - exists []. split; [apply splits_nil|]. destruct (strip_bom_cases s) as [(r & Er & _) | [_ ->]].
      + exfalso. unfold lit in F. cbn [new_input rest] in F.
        destruct (strip_prefix bom s) eqn:Q; [discriminate|].
        assert (Q' : strip_prefix bom s = Some r) by (apply strip_prefix_spec; exact Er). congruence.
      + apply Sw. }
  destruct Sb as (bm & Sb & Es).
  assert (D2 : depth i2 = 0).
  { rewrite (splits_depth _ _ _ Sw), (splits_depth _ _ _ Sb). reflexivity. }
  destruct (doc_loop_sound2 _ _ _ _ _ sstate0 El D2 (Inv_on_ws _ _ sp Inv_init)) as (t & l & [T cp] & St & Hdl & HI & (Hf & Hok & Hwi) & Hk & Hb).
  destruct St as [Rt _]. rewrite Rend, app_nil_r in Rt. exists l.
  split; [unfold toml_text; rewrite Es, Rt; apply toml_tok_ws; [exact Hw0|apply dlines_toml, Hdl]|]. split.
  - intro Hv. unfold verdict in Hv. rewrite Hok in Hv. unfold spec_run, run in Hv.
    assert (Hdec : dec sstate0 l) by (intro X; change (dstate sstate0) with (@sstate0 dval) in X; rewrite X in Hv; apply Hv; reflexivity).
    pose proof (Hk Hdec (dinv_on_ws _ sp dinv_init)) as Hdi.
    destruct (dinv_full stl (T, cp) HI Hdi) as (E0 & HP & HS & HR).
    destruct (finalize_Broot stl st' E0 Ef Hdi HP) as (root1 & -> & _ & Hh' & Hd' & Hq' & Hperm & _). cbn [finalized st_root] in *.
    rewrite (replay_sorted _ Hd' Hq' Hh'), (stable_sort_unique _ _ HS Hperm).
    destruct (finalize_sim stl T cp HI) as (root' & Ef' & Ha & _). rewrite Ef' in Ef. injection Ef as <-.
    unfold spec_run, run. change (@sstate0 dval) with (dstate sstate0). rewrite HR. unfold abs_doc. cbn [doc_root]. rewrite Ha. reflexivity.
  - intro Hn. destruct (Hb (gi_on_ws _ sp gi_init)) as [(_ & _ & Hnf) Hback]. destruct (Hback (finalize_back stl st' Ef Hnf Hn)) as [_ Hsim].
    unfold verdict, spec_run, run. change (@sstate0 dval) with (dstate sstate0). rewrite Hok, (simple_strict _ _ Hsim), Hf. discriminate.
Qed.

Theorem decided_replay s d : parse_document s = POk d -> (forall stmts, toml_text s stmts -> verdict stmts <> Undecided) ->
  spec_run (replay_stmts (doc_root d)) = Valid (abs_doc d).
Proof.
  intros Hp Hdecided. destruct (parsed_run s d Hp) as (l & Htext & Hrun & _). apply Hrun, Hdecided, Htext.
Qed.

(* whatever the order of the sections, when every key/value line has an undotted key *)
Theorem nodot_replay s d : parse_document s = POk d -> nodot (doc_root d) = true ->
  spec_run (replay_stmts (doc_root d)) = Valid (abs_doc d).
Proof. intros Hp Hn. destruct (parsed_run s d Hp) as (l & _ & Hrun & Hdec). apply Hrun, Hdec, Hn. Qed.

(* C03, general clause, for every accepted document the specification decides *)
Theorem reparse_decided s d o :
  parse_document s = POk d -> (forall stmts, toml_text s stmts -> verdict stmts <> Undecided) -> print_doc s d = Some o ->
  exists d', parse_document o = POk d' /\ abs_doc d' = abs_doc d.
Proof.
  intros Hp Hn Ho. unfold print_doc in Ho.
  destruct (tbl_despan s (doc_root d)) as [r|] eqn:Er; [|discriminate]. destruct (raw_despan s (doc_trailing d)) as [t|] eqn:Et; [|discriminate].
  injection Ho as <-. destruct (parse_WF s d r t Hp Er Et) as [Hs Htr].
  apply (WF_print_parse_replay r t (abs_doc d) Hs Htr). destruct (PrintBackDespan.tree_despan_t s) as (_ & _ & Ht). rewrite (Ht _ _ Er), replay_stmts_t.
  apply (decided_replay s d Hp Hn).
Qed.

(* C03, general clause, UNCONDITIONALLY for every accepted document whose key/value lines have undotted keys (header paths
   of any length, dotted keys inside inline tables, sections in ANY order are all allowed) *)
Theorem reparse_nodot s d o :
  parse_document s = POk d -> nodot (doc_root d) = true -> print_doc s d = Some o ->
  exists d', parse_document o = POk d' /\ abs_doc d' = abs_doc d.
Proof.
  intros Hp Hn Ho. unfold print_doc in Ho.
  destruct (tbl_despan s (doc_root d)) as [r|] eqn:Er; [|discriminate]. destruct (raw_despan s (doc_trailing d)) as [t|] eqn:Et; [|discriminate].
  injection Ho as <-. destruct (parse_WF s d r t Hp Er Et) as [Hs Htr].
  apply (WF_print_parse_replay r t (abs_doc d) Hs Htr). destruct (PrintBackDespan.tree_despan_t s) as (_ & _ & Ht). rewrite (Ht _ _ Er), replay_stmts_t.
  apply (nodot_replay s d Hp Hn).
Qed.
