(* Proofs/MacroFuel.v — C19: the fuel `macro_eval` gives itself (8 * token size + 16) covers the depth of
   the expansion of every supported document (`dcost`, Proofs/MacroDoc.v). *)
From TV Require Import Base.Prelude Model.Macro Spec.MacroSpec.
From TV Require Import Proofs.MacroDoc.
Require Import Lia.

Lemma tts_size_app : forall a b, tts_size (a ++ b) = tts_size a + tts_size b.
Proof. intros a b. unfold tts_size. induction a as [|t a IH]; [reflexivity|]. cbn [app fold_right]. rewrite IH. lia. Qed.
Lemma tts_size_cons : forall t a, tts_size (t :: a) = tt_size t + tts_size a.
Proof. reflexivity. Qed.
Lemma tt_size_pos : forall t, 1 <= tt_size t.
Proof. intros [s|l|c|d g]; cbn; lia. Qed.
Lemma tts_size_ge_length : forall a, List.length a <= tts_size a.
Proof. induction a as [|t a IH]; [cbn; lia|]. rewrite tts_size_cons. cbn [List.length]. pose proof (tt_size_pos t). lia. Qed.
Lemma tt_size_group : forall d g, tt_size (TGroup d g) = S (tts_size g).
Proof. reflexivity. Qed.

(* the invariant: cost + number of tokens + 2 <= 6 * size *)
Definition phi (v : aval) : Prop := vcost v + List.length (val_toks v) + 2 <= 6 * tts_size (val_toks v).

Lemma phi_scalar : forall v, vcost v = 1 -> val_toks v <> [] -> phi v.
Proof.
  intros v Hc Hne. unfold phi. rewrite Hc. pose proof (tts_size_ge_length (val_toks v)).
  destruct (val_toks v); [contradiction|]. cbn [List.length] in *. lia.
Qed.

Lemma join2 : forall (g g2 : list tt) gs,
  join_tts (Some c_comma) (g :: g2 :: gs) = g ++ [TPunct c_comma] ++ join_tts (Some c_comma) (g2 :: gs).
Proof. reflexivity. Qed.

(* a comma-separated list whose items each pay for themselves (and for the two steps spent on them) *)
Lemma join_bound : forall {A} (toks : A -> list tt) (cost : A -> nat) l,
  Forall (fun a => List.length (toks a) + 2 + cost a <= 6 * tts_size (toks a)) l ->
  List.length (join_tts (Some c_comma) (List.map toks l)) + fold_right (fun a acc => 2 + cost a + acc) 0 l
  <= 6 * tts_size (join_tts (Some c_comma) (List.map toks l)).
Proof.
  intros A toks cost. induction l as [|a [|a2 l] IH]; intro H; [cbn; lia| |].
  - inversion H as [|? ? Ha _]; subst. cbn [List.map join_tts fold_right]. lia.
  - inversion H as [|? ? Ha Hrest]; subst. specialize (IH Hrest).
    change (List.map toks (a :: a2 :: l)) with (toks a :: toks a2 :: List.map toks l).
    rewrite join2. change (toks a2 :: List.map toks l) with (List.map toks (a2 :: l)).
    cbn [fold_right] in *. rewrite !app_length, !tts_size_app. cbn [List.length]. change (tts_size [TPunct c_comma]) with 1. lia.
Qed.

Lemma arr_bound : forall l, Forall phi l ->
  List.length (join_tts (Some c_comma) (List.map val_toks l)) + elems_cost l
  <= 6 * tts_size (join_tts (Some c_comma) (List.map val_toks l)).
Proof.
  intros l H. apply (join_bound val_toks vcost). revert H. apply Forall_impl. intros v Hv. unfold phi in Hv. lia.
Qed.

Definition phi_pair (px : kpath * aval) : Prop := phi (snd px).

Lemma inl_bound : forall ps, Forall phi_pair ps ->
  List.length (join_tts (Some c_comma) (List.map pair_toks ps)) + pairs_cost ps
  <= 6 * tts_size (join_tts (Some c_comma) (List.map pair_toks ps)).
Proof.
  intros ps H. apply (join_bound pair_toks (fun px => vcost (snd px))). revert H. apply Forall_impl. intros [p v] Hv. unfold phi_pair, phi in Hv. cbn [snd] in *. unfold pair_toks. cbn [fst snd].
  rewrite !app_length, !tts_size_app. cbn [List.length]. change (tts_size [TPunct c_eq]) with 1.
  pose proof (tts_size_ge_length (key_toks p)). lia.
Qed.

Theorem phi_all : forall v, val_ok v = true -> phi v.
Proof.
  induction v as [s|sg t|sg t|sg nan|b|d|l tr IH|ps IH] using aval_ind'; intro Hok;
    try (apply phi_scalar; [reflexivity|apply val_toks_nonempty; exact Hok]).
  - unfold phi. rewrite val_toks_arr, vcost_arr. cbn [List.length]. rewrite tts_size_cons, tt_size_group.
    change (tts_size []) with 0.
    cbn [val_ok] in Hok. apply andb_true_iff in Hok as [Hall _].
    assert (HF : Forall phi l).
    { rewrite forallb_forall in Hall. rewrite Forall_forall in *. intros x Hx. apply IH; [exact Hx|apply Hall; exact Hx]. }
    pose proof (arr_bound l HF) as HB. unfold arr_inner. rewrite app_length, tts_size_app.
    destruct tr; cbn [List.length]; [change (tts_size [TPunct c_comma]) with 1|change (tts_size []) with 0]; lia.
  - unfold phi. rewrite val_toks_inl, vcost_inl. cbn [List.length]. rewrite tts_size_cons, tt_size_group.
    change (tts_size []) with 0.
    cbn [val_ok] in Hok.
    assert (HF : Forall phi_pair ps).
    { rewrite forallb_forall in Hok. rewrite Forall_forall in *. intros x Hx. unfold phi_pair. apply IH; [exact Hx|].
      specialize (Hok x Hx). apply andb_true_iff in Hok as [_ Hv]. exact Hv. }
    pose proof (inl_bound ps HF) as HB. unfold inl_inner. lia.
Qed.

Theorem dcost_bound : forall l, forallb stmt_ok l = true -> dcost l <= 6 * tts_size (tokens_of l) + 1.
Proof.
  induction l as [|s l IH]; intro H; [cbn; lia|].
  cbn [forallb] in H. apply andb_true_iff in H as [Hs Hl]. specialize (IH Hl).
  rewrite tokens_of_cons, tts_size_app. change (dcost (s :: l)) with (stmt_cost s + dcost l).
  destruct s as [p|p|p v]; cbn [stmt_cost stmt_toks stmt_ok] in *.
  - rewrite tts_size_cons, tt_size_group. lia.
  - rewrite tts_size_cons, tt_size_group. lia.
  - apply andb_true_iff in Hs as [_ Hv]. pose proof (phi_all v Hv) as Hphi. unfold phi in Hphi.
    rewrite !tts_size_app. lia.
Qed.

Theorem dcost_fuel : forall l, forallb stmt_ok l = true -> dcost l <= default_fuel (tokens_of l).
Proof. intros l H. pose proof (dcost_bound l H). unfold default_fuel. lia. Qed.

Lemma tokens_nonempty : forall l, macro_supported l = true -> tokens_of l <> [] /\ forallb stmt_ok l = true.
Proof.
  intros [|s l] H; [discriminate|]. unfold macro_supported in H. split; [|exact H].
  cbn [forallb] in H. apply andb_true_iff in H as [Hs _].
  rewrite tokens_of_cons. destruct (stmt_toks_head s Hs) as [t [X [E _]]]. rewrite E. discriminate.
Qed.
