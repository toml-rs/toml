(* Proofs/SpannedRTTop.v — C14, serde half: the statements (delivery, transparency) and the two
   witnesses of non-transparency. *)
From TV Require Import Base.Prelude Model.SerNum Spec.SerdeData Model.De Model.SerdeSpanned Proofs.RoutesRel Proofs.SpannedRT
  Extract.SpannedTree Extract.Show.
Require Import String.

(* Spanned<T> on a node with span a..b is Spanned { a..b, what T yields on that node }; without a span it fails *)
Theorem spanned_delivers t s :
  match span_of s with
  | Some (a, b) => de_s (YSpanned t) s = rmap (XSpanned a b) (de_s t s)
  | None => de_s (YSpanned t) s = Err EDe
  end.
Proof. rewrite ds_spanned. destruct (span_of s) as [[a b]|]; reflexivity. Qed.

(* a map key Spanned<K> delivers the span of the key around what K yields on that key, for ANY key type K
   (a newtype, another Spanned, ..): KeyDeserializer hands itself to the inner type *)
Theorem spanned_key_delivers t k ksp :
  match ksp with
  | Some (a, b) => de_key_s (YSpanned t) k ksp = rmap (XSpanned a b) (de_key_s t k ksp)
  | None => de_key_s (YSpanned t) k ksp = Err EDe
  end.
Proof. destruct ksp as [[a b]|]; reflexivity. Qed.

(* keys are transparent under any nesting of Spanned / newtype wrappers *)
Theorem spanned_key_transparent kt k a b :
  ((exists x, de_key_s kt k (Some (a, b)) = Ok x) <-> (exists v, de_key (erase_ty kt) k = Ok v))
  /\ (forall x v, de_key_s kt k (Some (a, b)) = Ok x -> de_key (erase_ty kt) k = Ok v -> erase_val x = v).
Proof. exact (lockstep_spelled ER _ _ (key_lockstep kt k a b)). Qed.

(* a DocumentMut (into_mut) has no spans: nothing is delivered *)
Lemma span_of_despan s : span_of (despan s) = None.
Proof. destruct s; reflexivity. Qed.
Theorem spanned_needs_spans t s : de_s (YSpanned t) (despan s) = Err EDe.
Proof. rewrite ds_spanned, span_of_despan. reflexivity. Qed.

(* transparency *)
Theorem spanned_transparent t s : sty_ok t = true -> all_spans s = true ->
  ((exists x, de_s t s = Ok x) <-> (exists v, de_value (erase_ty t) (strip s) = Ok v))
  /\ (forall x v, de_s t s = Ok x -> de_value (erase_ty t) (strip s) = Ok v -> erase_val x = v).
Proof. intros Hok Hs. exact (lockstep_spelled ER _ _ (spanned_lockstep t Hok s Hs)). Qed.

(* ---- where it is not transparent ---- *)
(* C14-implicit-table-span: `[a.b]\nc = 3\n` — the table `a` exists only because the header mentions it, and has no span *)
Definition imp_text : bytes := str "[a.b]" ++ [x0a] ++ str "c = 3" ++ [x0a].
Definition imp_tree : stree :=
  NTab (Some (0, 0)%N)
       [(str "a", Some (1, 2)%N,
         NTab None [(str "b", Some (3, 4)%N,
                     NTab (Some (0, 11)%N) [(str "c", Some (6, 7)%N, NLeaf (Some (10, 11)%N) (VInt 3))])])].
Definition imp_inner : ty := TStruct (str "T") [(str "b", TStruct (str "U") [(str "c", TInt TI8)])].
Definition imp_ty : sty := YStruct (str "S") [(str "a", YSpanned (YPlain imp_inner))].

Theorem implicit_table_refuted :
  parse_stree imp_text = Some (Some imp_tree)
  /\ sty_ok imp_ty = true /\ all_spans imp_tree = false
  /\ de_value (erase_ty imp_ty) (strip imp_tree) = Ok (SRec [SRec [SRec [SInt 3]]])
  /\ de_s imp_ty imp_tree = Err EDe.
Proof. repeat split; vm_compute; reflexivity. Qed.

(* a field Spanned<Option<T>> whose key is missing: `a = 3\n` read as S { a: i64, o: Spanned<Option<i8>> } *)
Definition opt_text : bytes := str "a = 3" ++ [x0a].
Definition opt_tree : stree := NTab (Some (0, 5)%N) [(str "a", Some (0, 1)%N, NLeaf (Some (4, 5)%N) (VInt 3))].
Definition opt_ty : sty := YStruct (str "S") [(str "a", YPlain (TInt TI64)); (str "o", YSpanned (YOpt (YPlain (TInt TI8))))].

Theorem spanned_option_missing_refuted :
  parse_stree opt_text = Some (Some opt_tree)
  /\ all_spans opt_tree = true /\ sty_ok opt_ty = false
  /\ de_value (erase_ty opt_ty) (strip opt_tree) = Ok (SRec [SInt 3; SNone])
  /\ de_s opt_ty opt_tree = Err EDe
  /\ (* the Spanned INSIDE the Option is fine *)
     de_s (YStruct (str "S") [(str "a", YPlain (TInt TI64)); (str "o", YOpt (YSpanned (YPlain (TInt TI8))))]) opt_tree
     = Ok (XRec [XPlain (SInt 3); XPlain SNone]).
Proof. repeat split; vm_compute; reflexivity. Qed.

(* regression (repaired finding C14-spanned-newtype-key): a map key Spanned<Wrap(String)>: `k = 3\n` read as
   BTreeMap<Spanned<Wrap>, i8>.  KeyDeserializer::deserialize_struct used to hand the key TEXT to the inner type
   (StrDeserializer: visit_str only), so this failed where Wrap(String) and Wrap(Spanned<String>) worked. *)
Definition nk_text : bytes := str "k = 3" ++ [x0a].
Definition nk_tree : stree := NTab (Some (0, 5)%N) [(str "k", Some (0, 1)%N, NLeaf (Some (4, 5)%N) (VInt 3))].
Definition nk_ty : sty := YMap (YSpanned (YPlain (TNewtype (str "W") TStr))) (YPlain (TInt TI8)).

Theorem spanned_newtype_key_ok :
  parse_stree nk_text = Some (Some nk_tree)
  /\ all_spans nk_tree = true /\ sty_ok nk_ty = true
  /\ de_value (erase_ty nk_ty) (strip nk_tree) = Ok (SMap [(SNewtype (SStr (str "k")), SInt 3)])
  /\ de_s nk_ty nk_tree = Ok (XMap [(XSpanned 0 1 (XPlain (SNewtype (SStr (str "k")))), XPlain (SInt 3))])
  /\ (* the Spanned around a newtype written with sty constructors, inside it, and around another Spanned *)
     de_s (YMap (YSpanned (YNewtype (str "W") (YPlain TStr))) (YPlain (TInt TI8))) nk_tree
     = Ok (XMap [(XSpanned 0 1 (XNewtype (XPlain (SStr (str "k")))), XPlain (SInt 3))])
  /\ de_s (YMap (YNewtype (str "W") (YSpanned (YPlain TStr))) (YPlain (TInt TI8))) nk_tree
     = Ok (XMap [(XNewtype (XSpanned 0 1 (XPlain (SStr (str "k")))), XPlain (SInt 3))])
  /\ de_s (YMap (YSpanned (YSpanned (YPlain TStr))) (YPlain (TInt TI8))) nk_tree
     = Ok (XMap [(XSpanned 0 1 (XSpanned 0 1 (XPlain (SStr (str "k")))), XPlain (SInt 3))])
  /\ de_s (YMap (YSpanned (YNewtype (str "W") (YSpanned (YPlain TStr)))) (YPlain (TInt TI8))) nk_tree
     = Ok (XMap [(XSpanned 0 1 (XNewtype (XSpanned 0 1 (XPlain (SStr (str "k"))))), XPlain (SInt 3))]).
Proof. repeat split; vm_compute; reflexivity. Qed.
