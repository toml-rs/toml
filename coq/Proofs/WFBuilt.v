(* Proofs/WFBuilt.v — whatever the construction API builds (Model/Build.v `BuiltTbl`) is well-formed (Spec/WF.v), once its
   floats without a stored repr are given their text (`render_tbl ftext`, the oracle of DESIGN.md 4.4) and provided no
   array of tables is empty (an empty one prints nothing: C06's `printed_entries` drops it).
   Leaves: `PS s` must give `scalar_lim s` and a default repr proved to be a token (`default_ok`; for floats: the
   text `ftext f` is a float token denoting f); keys: UTF-8.  Limits: C06's `tbl_hdepth`, `tbl_vdepth` below LIMIT. *)
From TV Require Import Base.Prelude Base.Utf8 Base.Winnow Gen.Consts Spec.Lex Spec.WF.
From TV Require Import Model.Datetime Model.Numbers Model.Tree Model.Parse Model.Document Model.Encode Model.Build.
From TV Require Import Proofs.BuiltRTEncode.
From TV Require Import Proofs.WFBoolSound Proofs.WFPrintFlat Proofs.WFTree Proofs.WFPrintDoc Proofs.WFParseBase Proofs.WFParseValue.
From TV Require Import Proofs.KvFacts.
Require Import Lia NArith.

(* no array of tables is empty *)
Fixpoint aot_ne (t : tbl) {struct t} : bool :=
  match t with
  | Tbl items _ _ _ _ _ =>
    forallb (fun kv => match snd kv with
                       | ITable sub => aot_ne sub
                       | IAot ts _ => negb (match ts with [] => true | _ => false end) && forallb aot_ne ts
                       | _ => true
                       end) items
  end.
Definition aot_ne_entry (kv : key * item) : bool :=
  match snd kv with
  | ITable sub => aot_ne sub
  | IAot ts _ => negb (match ts with [] => true | _ => false end) && forallb aot_ne ts
  | _ => true
  end.
Lemma aot_ne_eq t : aot_ne t = forallb aot_ne_entry (t_items t).
Proof. destruct t; reflexivity. Qed.

Lemma nd_const n (l : list (tbl * list key * bool)) : Forall (fun x => t_position (fst (fst x)) = None) l -> nondecreasing (n :: map fst (assign_positions n l)).
Proof.
  induction 1 as [|[[t p] a] l H _ IH]; [exact I|]. cbn [assign_positions map fst]. cbn [fst] in H. rewrite H. split; [lia|exact IH].
Qed.

Section B.
  Variable ftext : fval -> bytes.
  Variable PS : scalar -> Prop.
  Variable PK : bytes -> Prop.
  Hypothesis HPS : forall s, PS s -> scalar_lim s /\ match s with SFloat f => float_tok (ftext f) f | _ => default_ok s end.
  Hypothesis HPK : forall k, PK k -> utf8_valid_b k = true.
  Local Notation BuiltValue := (BuiltValue PS PK).
  Local Notation rv := (render_value ftext).
  Local Notation rt := (render_tbl ftext).

  (* ---- decor --------------------------------------------------------------------------------------------------------------- *)
  Lemma built_vdecor c d : decor_built d -> vdecor_ok c d.
  Proof.
    destruct d as [p s]. unfold decor_built, prefix_built, suffix_built. cbn [d_prefix d_suffix].
    intros [[ -> | [ -> | -> ] ] [ -> | -> ] ]; apply vdecor_b_sound; destruct c; reflexivity.
  Qed.
  Lemma ml_vdecor s : suffix_built s -> vdecor_ok CArr (mkDecor (Some (RExplicit ML_PREFIX)) s).
  Proof. intros [ -> | -> ]; apply vdecor_b_sound; reflexivity. Qed.
  Lemma default_decor_ok a b : decor_ok a b decor_default.
  Proof. split; exact I. Qed.
  Lemma key_new_wf line k : PK k -> key_wf line (key_new k).
  Proof. intro H. split; [exact (HPK k H)|]. split; apply default_decor_ok. Qed.

  Lemma built_value_decor v : BuiltValue v -> decor_built (value_decor v).
  Proof. intro H. destruct H; assumption. Qed.
  Lemma rv_decor v : value_decor (rv v) = value_decor v.
  Proof. destruct v as [s r d|vals tr c d sp|items pre im dt d sp]; try reflexivity. destruct s, r; reflexivity. Qed.
  Lemma rv_ml v : rv (ml_elem v) = ml_elem (rv v).
  Proof. destruct v as [s r d|vals tr c d sp|items pre im dt d sp]; try reflexivity. destruct s, r; reflexivity. Qed.
  Lemma render_built_ml es tr c d sp :
    rv (VArray (map (fun e => IValue (ml_elem e)) es) tr c d sp) = VArray (map (fun e => IValue (ml_elem e)) (map rv es)) tr c d sp.
  Proof. rewrite render_array, !map_map. f_equal. apply map_ext. intro e. rewrite render_item_value, rv_ml. reflexivity. Qed.

  (* ---- nesting depth ------------------------------------------------------------------------------------------------------- *)
  Definition dmax (es : list value) : nat := fold_right (fun e acc => Nat.max (value_depth e) acc) 0 es.
  Lemma ml_depth e : value_depth (ml_elem e) = value_depth e.
  Proof. destruct e; reflexivity. Qed.
  Lemma vd_arr es tr c d sp : value_depth (VArray (map IValue es) tr c d sp) = S (dmax es).
  Proof. cbn [value_depth]. f_equal. induction es as [|e es IH]; [reflexivity|]. cbn [map fold_right dmax]. rewrite IH. reflexivity. Qed.
  Lemma vd_ml es tr c d sp : value_depth (VArray (map (fun e => IValue (ml_elem e)) es) tr c d sp) = S (dmax es).
  Proof. cbn [value_depth]. f_equal. induction es as [|e es IH]; [reflexivity|]. cbn [map fold_right dmax]. rewrite IH, ml_depth. reflexivity. Qed.
  Lemma vd_inl l pre im dt d sp : value_depth (VInline (mk_inline_items l) pre im dt d sp) = S (dmax (map snd l)).
  Proof. cbn [value_depth]. f_equal. unfold mk_inline_items. induction l as [|[k v] l IH]; [reflexivity|]. cbn [map fold_right dmax fst snd]. rewrite IH. reflexivity. Qed.
  Lemma dmax_in e es : In e es -> value_depth e <= dmax es.
  Proof. induction es as [|x es IH]; [intros []|]. cbn [dmax fold_right]. fold (dmax es). intros [->|H]; [lia|specialize (IH H); lia]. Qed.
  Lemma dmax_map (f : value -> value) es : Forall (fun e => value_depth (f e) = value_depth e) es -> dmax (map f es) = dmax es.
  Proof. induction 1 as [|e es He _ IH]; [reflexivity|]. cbn [map dmax fold_right]. fold (dmax (map f es)). fold (dmax es). rewrite He, IH. reflexivity. Qed.

  Lemma rv_depth : forall v, BuiltValue v -> value_depth (rv v) = value_depth v.
  Proof.
    apply BuiltValue_sind.
    - intros s d _ _. destruct s; reflexivity.
    - intros es d _ _ IH. rewrite render_built_array, !vd_arr, (dmax_map _ _ IH). reflexivity.
    - intros es d _ _ IH. rewrite render_built_ml, !vd_ml, (dmax_map _ _ IH). reflexivity.
    - intros l d _ _ _ _ IH. rewrite render_built_inline, !vd_inl, map_map. cbn [snd]. rewrite <- (map_map snd rv), (dmax_map _ _ IH). reflexivity.
  Qed.

  (* ---- values --------------------------------------------------------------------------------------------------------------- *)
  Lemma value_wf_swap c c' v : value_wf c v -> vdecor_ok c' (value_decor v) -> value_wf c' v.
  Proof. destruct v; cbn [value_wf value_decor]; tauto. Qed.
  Lemma value_wf_ml c v : value_wf c v -> vdecor_ok CArr (mkDecor (Some (RExplicit ML_PREFIX)) (d_suffix (value_decor v))) -> value_wf CArr (ml_elem v).
  Proof. destruct v; cbn [value_wf value_decor ml_elem]; tauto. Qed.
  Lemma value_lim_ml d v : value_lim d (ml_elem v) <-> value_lim d v.
  Proof. destruct v; cbn [value_lim ml_elem]; tauto. Qed.
  Lemma built_written v : BuiltValue v -> written (rv v).
  Proof. intro H. destruct H as [s d Hps Hd | es d Hd Hes | es d Hd Hes | l d Hd Hnd Hk Hl]; [destruct s|..]; cbn; auto. Qed.
  Lemma kkeys_inline (l : list (bytes * value)) : kkeys (mk_inline_items l) = map fst l.
  Proof. unfold kkeys, mk_inline_items. rewrite map_map. reflexivity. Qed.

  Lemma built_value_wf : forall v, BuiltValue v -> forall c, value_wf c (rv v).
  Proof.
    apply (BuiltValue_sind PS PK (fun v => forall c, value_wf c (rv v))).
    - intros s d Hs Hd c. destruct (HPS s Hs) as [Hl Hr].
      destruct s; cbn [render_value value_wf repr_ok]; (split; [exact Hr|split; [exact Hl|apply built_vdecor, Hd]]).
    - intros es d Hd Hes IH c. rewrite render_built_array. cbn [value_wf]. split; [apply built_vdecor, Hd|]. split; [apply empty_raw_ok|].
      apply all_P_Forall. rewrite !Forall_map. eapply Forall_impl; [|exact IH]. intros e He. apply He.
    - intros es d Hd Hes IH c. rewrite render_built_ml. cbn [value_wf]. split; [apply built_vdecor, Hd|]. split; [apply raw_b_sound; reflexivity|].
      apply all_P_Forall. rewrite !Forall_map. rewrite Forall_forall in *. intros e Hin. apply (value_wf_ml CArr _ (IH e Hin CArr)).
      rewrite rv_decor. apply ml_vdecor. apply (built_value_decor e (Hes e Hin)).
    - intros l d Hd Hnd Hk Hl IH c. rewrite render_built_inline. cbn [value_wf]. split; [apply built_vdecor, Hd|]. split; [apply empty_raw_ok|].
      split; [rewrite kkeys_inline, map_map; exact Hnd|].
      apply all_P_Forall. unfold mk_inline_items. rewrite !Forall_map. rewrite Forall_forall in *. intros [k v] Hin. cbn [fst snd].
      split; [apply key_new_wf, Hk, (in_map fst _ _ Hin)|].
      rewrite pair_wf_plain; [apply (IH v (in_map snd _ _ Hin))|apply (built_not_dotted ftext PS PK v (Hl v (in_map snd _ _ Hin)))].
  Qed.

  Lemma built_value_lim : forall v, BuiltValue v -> forall d, d + value_depth v < LIMIT -> value_lim d (rv v).
  Proof.
    apply (BuiltValue_sind PS PK (fun v => forall d, d + value_depth v < LIMIT -> value_lim d (rv v))).
    - intros s d _ _ n _. destruct s; exact I.
    - intros es d _ _ IH n H. rewrite render_built_array. rewrite vd_arr in H. cbn [value_lim]. split; [lia|].
      apply all_P_Forall. rewrite !Forall_map. rewrite Forall_forall in *. intros e Hin. apply (IH e Hin). pose proof (dmax_in e es Hin). lia.
    - intros es d _ _ IH n H. rewrite render_built_ml. rewrite vd_ml in H. cbn [value_lim]. split; [lia|].
      apply all_P_Forall. rewrite !Forall_map. rewrite Forall_forall in *. intros e Hin. apply value_lim_ml. apply (IH e Hin). pose proof (dmax_in e es Hin). lia.
    - intros l d _ _ _ Hl IH n H. rewrite render_built_inline. rewrite vd_inl in H. cbn [value_lim]. split; [lia|].
      apply all_P_Forall. unfold mk_inline_items. rewrite !Forall_map. rewrite Forall_forall in *. intros [k v] Hin. cbn [fst snd].
      pose proof (in_map snd _ _ Hin) as Hv. cbn [snd] in Hv. pose proof (dmax_in v _ Hv).
      rewrite (written_pair_lim (rv v) (S n) 1 (built_written v (Hl v Hv))), (rv_depth v (Hl v Hv)). split; [lia|]. apply (IH v Hv). lia.
  Qed.

  (* ---- tables: the shape of a constructed table --------------------------------------------------------------------------- *)
  Fixpoint bshape (t : tbl) {struct t} : Prop :=
    match t with
    | Tbl items d _ dt _ _ =>
      d = decor_default /\ dt = false /\ NoDup (kkeys items)
      /\ all_P (fun kv => (exists k, fst kv = key_new k /\ PK k) /\
                         match snd kv with
                         | IValue v => BuiltValue v
                         | ITable sub => bshape sub /\ t_position sub = None /\ (t_implicit sub = true -> tbl_prints sub = true)
                         | IAot ts _ => all_P (fun e => bshape e /\ t_position e = None) ts
                         | INone => False
                         end) items
    end.
  Definition bentry (kv : key * item) : Prop :=
    (exists k, fst kv = key_new k /\ PK k) /\
    match snd kv with
    | IValue v => BuiltValue v
    | ITable sub => bshape sub /\ t_position sub = None /\ (t_implicit sub = true -> tbl_prints sub = true)
    | IAot ts _ => all_P (fun e => bshape e /\ t_position e = None) ts
    | INone => False
    end.
  Lemma bshape_eq t : bshape t <-> t_decor t = decor_default /\ t_dotted t = false /\ NoDup (kkeys (t_items t)) /\ all_P bentry (t_items t).
  Proof. destruct t; reflexivity. Qed.

  Lemma kkeys_tbl (l : list (bytes * item)) : kkeys (mk_tbl_items l) = map fst l.
  Proof. unfold kkeys, mk_tbl_items. rewrite map_map. reflexivity. Qed.
  Lemma prints_mk (l : list (bytes * item)) :
    existsb (fun kv : key * item => match kv with (_, i0) => item_prints i0 end) (mk_tbl_items l) = existsb (fun kv => item_prints (snd kv)) l.
  Proof. unfold mk_tbl_items. induction l as [|[k it] l IH]; [reflexivity|]. cbn [map existsb fst snd]. rewrite IH. reflexivity. Qed.

  Lemma built_bshape : forall t l im pos, t = Tbl (mk_tbl_items l) decor_default im false pos None -> BuiltEntries PS PK l -> bshape t.
  Proof.
    induction t as [items d im dt p sp IH] using tbl_sub_ind. intros l im' pos E Hb. injection E as -> -> _ -> _ _.
    destruct Hb as [l Hnd Hk Hit]. apply bshape_eq. cbn [t_decor t_dotted t_items]. split; [reflexivity|]. split; [reflexivity|].
    split; [rewrite kkeys_tbl; exact Hnd|]. apply all_P_Forall. unfold mk_tbl_items in *. rewrite Forall_map in *. rewrite Forall_forall in *.
    intros [k it] Hin. specialize (IH _ Hin). cbn [fst snd] in *. split; [exists k; split; [reflexivity|apply (Hk (k, it) Hin)]|].
    pose proof (Hit (k, it) Hin) as Hbi. cbn [snd] in Hbi. destruct Hbi as [v Hv|im1 l1 Hb1 Hpr|ls Hls].
    - exact Hv.
    - split; [apply (IH l1 im1 None eq_refl Hb1)|]. split; [reflexivity|]. cbn [t_implicit tbl_prints]. intros ->. rewrite prints_mk. apply Hpr. reflexivity.
    - apply all_P_Forall. rewrite Forall_map in *. rewrite Forall_forall in *. intros x Hx. split; [apply (IH x Hx (snd x) (fst x) None eq_refl (Hls x Hx))|reflexivity].
  Qed.

  (* rendering keeps everything but the float reprs *)
  Lemma rt_flags t : t_decor (rt t) = t_decor t /\ t_implicit (rt t) = t_implicit t /\ t_dotted (rt t) = t_dotted t /\ t_position (rt t) = t_position t.
  Proof. destruct t; repeat split. Qed.
  Lemma rt_items t : t_items (rt t) = map (fun kv => (fst kv, render_item ftext (snd kv))) (t_items t).
  Proof. destruct t as [items d im dt p sp]. cbn [render_tbl t_items]. apply map_ext. intros [k i0]. reflexivity. Qed.
  Lemma kkeys_render (items : kvs) : kkeys (map (fun kv => (fst kv, render_item ftext (snd kv))) items) = kkeys items.
  Proof. unfold kkeys. rewrite map_map. reflexivity. Qed.
  Lemma tbl_wf_eq top t : tbl_wf top t <->
    decor_ok SLines (if top then SLines else SLineTrail) (t_decor t) /\ NoDup (kkeys (t_items t))
    /\ all_P (fun kv => key_wf true (fst kv) /\
                 match snd kv with
                 | INone => False
                 | IValue _ => pair_wf true (snd kv)
                 | ITable sub => tbl_wf false sub /\ (if t_dotted sub then has_line sub = true \/ prints_header sub = true else shown sub = true \/ prints_header sub = true)
                 | IAot ts _ => ts <> [] /\ all_P (fun e => t_dotted e = false /\ tbl_wf false e) ts
                 end) (t_items t).
  Proof. destruct t; reflexivity. Qed.
  Lemma tbl_prints_eq t : tbl_prints t = existsb (fun kv => item_prints (snd kv)) (t_items t).
  Proof. destruct t as [items d im dt p sp]. cbn [tbl_prints t_items]. induction items as [|[k it] l IH]; [reflexivity|]. cbn [existsb snd]. rewrite IH. reflexivity. Qed.

  (* a table that prints something has a line or a header below it *)
  Lemma built_prints : forall t, bshape t -> aot_ne t = true -> tbl_prints t = true -> has_line (rt t) = true \/ prints_header (rt t) = true.
  Proof.
    induction t as [items d im dt p sp IH] using tbl_sub_ind. intros Hb Hne Hpr. apply bshape_eq in Hb as (_ & _ & _ & Hen). cbn [t_items] in Hen.
    rewrite aot_ne_eq in Hne. cbn [t_items] in Hne. rewrite tbl_prints_eq in Hpr. cbn [t_items] in Hpr.
    rewrite has_line_eq, prints_header_eq, rt_items. cbn [t_items].
    apply existsb_exists in Hpr as ([k it] & Hin & Hp). cbn [snd] in Hp. rewrite Forall_forall in IH. specialize (IH _ Hin). cbn [snd] in IH.
    rewrite forallb_forall in Hne. specialize (Hne _ Hin). unfold aot_ne_entry in Hne. cbn [snd] in Hne.
    pose proof (all_P_In _ _ _ Hen Hin) as [_ He]. cbn [snd] in He.
    pose proof (in_map (fun kv => (fst kv, render_item ftext (snd kv))) _ _ Hin) as Hin'. cbn [fst snd] in Hin'.
    destruct it as [|v|sub|ts asp]; [discriminate| | |].
    - left. apply existsb_exists. eexists. split; [exact Hin'|reflexivity].
    - right. apply existsb_exists. eexists. split; [exact Hin'|]. cbn [snd]. change (render_item ftext (ITable sub)) with (ITable (rt sub)). cbv beta iota.
      destruct He as (Hsb & _ & _).
      pose proof Hsb as Hsb'. apply bshape_eq in Hsb' as (_ & Hd & _). destruct (rt_flags sub) as (_ & Fi & Fd & _). rewrite Fd, Hd. cbn [negb andb].
      unfold shown. rewrite Fi. cbn [item_prints] in Hp. destruct (t_implicit sub); [|reflexivity]. cbn [negb orb andb] in *.
      destruct (IH Hsb Hne Hp) as [H|H]; rewrite H; [reflexivity|apply orb_true_r].
    - right. apply existsb_exists. eexists. split; [exact Hin'|]. cbn [snd]. change (render_item ftext (IAot ts asp)) with (IAot (map rt ts) asp). cbv beta iota.
      destruct ts; [discriminate|reflexivity].
  Qed.

  Lemma built_shown sub : bshape sub -> aot_ne sub = true -> (t_implicit sub = true -> tbl_prints sub = true) ->
    shown (rt sub) = true \/ prints_header (rt sub) = true.
  Proof.
    intros Hb Hne Hp. unfold shown. destruct (rt_flags sub) as (_ & Fi & _). rewrite Fi. destruct (t_implicit sub); [|left; reflexivity].
    destruct (built_prints sub Hb Hne (Hp eq_refl)) as [H|H]; [left; rewrite H; reflexivity|right; exact H].
  Qed.

  Lemma built_tbl_wf : forall t, bshape t -> aot_ne t = true -> forall top, tbl_wf top (rt t).
  Proof.
    induction t as [items d im dt p sp IH] using tbl_sub_ind. intros Hb Hne top. apply bshape_eq in Hb as (Hd & _ & Hnd & Hen). cbn [t_decor t_items] in *.
    rewrite aot_ne_eq in Hne. cbn [t_items] in Hne. apply tbl_wf_eq. rewrite rt_items. destruct (rt_flags (Tbl items d im dt p sp)) as (Fd & _). rewrite Fd.
    cbn [t_decor t_items]. split; [rewrite Hd; apply default_decor_ok|]. split; [rewrite kkeys_render; exact Hnd|].
    apply all_P_Forall. rewrite Forall_map. rewrite Forall_forall in *. intros [k it] Hin. specialize (IH _ Hin). cbn [fst snd] in *.
    rewrite forallb_forall in Hne. specialize (Hne _ Hin). unfold aot_ne_entry in Hne. cbn [snd] in Hne.
    pose proof (all_P_In _ _ _ Hen Hin) as [(k0 & Ek & Hk0) He]. cbn [fst snd] in Ek, He. subst k. split; [apply key_new_wf, Hk0|].
    destruct it as [|v|sub|ts asp]; [contradiction| | |].
    - change (render_item ftext (IValue v)) with (IValue (rv v)). cbv beta iota. rewrite pair_wf_plain; [apply (built_value_wf v He)|apply (built_not_dotted ftext PS PK v He)].
    - change (render_item ftext (ITable sub)) with (ITable (rt sub)). cbv beta iota. destruct He as (Hsb & _ & Hpr). split; [apply (IH Hsb Hne)|]. pose proof Hsb as Hsb'. apply bshape_eq in Hsb' as (_ & Hds & _).
      destruct (rt_flags sub) as (_ & _ & Fd' & _). rewrite Fd', Hds. apply (built_shown sub Hsb Hne Hpr).
    - change (render_item ftext (IAot ts asp)) with (IAot (map rt ts) asp). cbv beta iota. apply andb_true_iff in Hne as [Hnn Hall]. split; [destruct ts; [discriminate|discriminate]|].
      apply all_P_Forall. rewrite Forall_map. rewrite Forall_forall in *. intros e Hine. rewrite forallb_forall in Hall.
      destruct (all_P_In _ _ _ He Hine) as [Hsb _]. pose proof Hsb as Hsb'. apply bshape_eq in Hsb' as (_ & Hds & _). destruct (rt_flags e) as (_ & _ & Fd' & _).
      split; [congruence|apply (IH e Hine Hsb (Hall e Hine))].
  Qed.

  (* ---- limits --------------------------------------------------------------------------------------------------------------- *)
  Lemma tbl_hdepth_eq t : tbl_hdepth t = fold_right (fun kv acc => Nat.max (item_hdepth (snd kv)) acc) 0 (t_items t).
  Proof. destruct t as [items d im dt p sp]. cbn [tbl_hdepth t_items]. induction items as [|[k it] l IH]; [reflexivity|]. cbn [fold_right snd]. rewrite IH. reflexivity. Qed.
  Lemma tbl_vdepth_eq t : tbl_vdepth t = fold_right (fun kv acc => Nat.max (item_vdepth (snd kv)) acc) 0 (t_items t).
  Proof. destruct t as [items d im dt p sp]. cbn [tbl_vdepth t_items]. induction items as [|[k it] l IH]; [reflexivity|]. cbn [fold_right snd]. rewrite IH. reflexivity. Qed.
  Lemma fold_max_ge {A} (f : A -> nat) x l : In x l -> f x <= fold_right (fun y acc => Nat.max (f y) acc) 0 l.
  Proof. induction l as [|y l IH]; [intros []|]. cbn [fold_right]. intros [->|H]; [lia|specialize (IH H); lia]. Qed.
  Lemma tbl_lim_eq h n t : tbl_lim h n t <->
    all_P (fun kv => match snd kv with
                     | IValue _ => line_lim (S n) (snd kv)
                     | ITable sub => if t_dotted sub then tbl_lim (S h) (S n) sub else S h < LIMIT /\ tbl_lim (S h) 0 sub
                     | IAot ts _ => S h < LIMIT /\ all_P (fun e => tbl_lim (S h) 0 e) ts
                     | INone => True
                     end) (t_items t).
  Proof. destruct t; reflexivity. Qed.

  Lemma built_tbl_lim : forall t, bshape t -> forall h, h + tbl_hdepth t < LIMIT -> tbl_vdepth t < LIMIT -> tbl_lim h 0 (rt t).
  Proof.
    induction t as [items d im dt p sp IH] using tbl_sub_ind. intros Hb h Hh Hv. apply bshape_eq in Hb as (_ & _ & _ & Hen). cbn [t_items] in Hen.
    rewrite tbl_hdepth_eq in Hh. rewrite tbl_vdepth_eq in Hv. cbn [t_items] in Hh, Hv. apply tbl_lim_eq. rewrite rt_items. cbn [t_items].
    apply all_P_Forall. rewrite Forall_map. rewrite Forall_forall in *. intros [k it] Hin. specialize (IH _ Hin). cbn [fst snd] in *.
    pose proof (all_P_In _ _ _ Hen Hin) as [_ He]. cbn [snd] in He.
    pose proof (fold_max_ge (fun kv : key * item => item_hdepth (snd kv)) _ _ Hin) as Mh. pose proof (fold_max_ge (fun kv : key * item => item_vdepth (snd kv)) _ _ Hin) as Mv.
    cbn [snd] in Mh, Mv.
    destruct it as [|v|sub|ts asp]; [exact I| | |].
    - change (render_item ftext (IValue v)) with (IValue (rv v)). cbv beta iota. rewrite (line_lim_plain 1 (rv v) (built_not_dotted ftext PS PK v He)).
      split; [unfold LIMIT; lia|]. apply (built_value_lim v He 0). cbn [item_vdepth] in Mv. lia.
    - change (render_item ftext (ITable sub)) with (ITable (rt sub)). cbv beta iota. destruct He as (Hsb & _ & _). pose proof Hsb as Hsb'. apply bshape_eq in Hsb' as (_ & Hds & _).
      destruct (rt_flags sub) as (_ & _ & Fd & _). rewrite Fd, Hds. cbn [item_hdepth item_vdepth] in Mh, Mv. split; [lia|]. apply (IH Hsb); lia.
    - change (render_item ftext (IAot ts asp)) with (IAot (map rt ts) asp). cbv beta iota. cbn [item_hdepth item_vdepth] in Mh, Mv. split; [lia|].
      apply all_P_Forall. rewrite Forall_map. rewrite Forall_forall in *. intros e Hine. destruct (all_P_In _ _ _ He Hine) as [Hsb _].
      pose proof (fold_max_ge tbl_hdepth _ _ Hine). pose proof (fold_max_ge tbl_vdepth _ _ Hine). apply (IH e Hine Hsb); lia.
  Qed.

  (* ---- the order of the sections: every position below the root is None -------------------------------------------------- *)
  Local Notation pos_none := (fun x : tbl * list key * bool => t_position (fst (fst x)) = None).
  Lemma sections_none e path arr :
    t_position e = None -> Forall pos_none (flat_map (sub_sections path) (t_items (rt e))) -> Forall pos_none (sections (rt e) path arr).
  Proof.
    intros Hq F. rewrite sections_eq. apply Forall_app. split; [|exact F]. destruct (t_dotted (rt e)); constructor; [|constructor].
    cbn [fst]. destruct (rt_flags e) as (_ & _ & _ & Fq). congruence.
  Qed.
  Lemma built_sections : forall t, bshape t -> forall path, Forall pos_none (flat_map (sub_sections path) (t_items (rt t))).
  Proof.
    induction t as [items d im dt p sp IH] using tbl_sub_ind. intros Hb path. apply bshape_eq in Hb as (_ & _ & _ & Hen). cbn [t_items] in Hen. rewrite rt_items. cbn [t_items].
    apply Forall_flat_map, Forall_map, Forall_forall. intros [k it] Hin. rewrite Forall_forall in IH. specialize (IH _ Hin).
    pose proof (all_P_In _ _ _ Hen Hin) as [_ He]. unfold sub_sections. cbn [fst snd] in *. destruct it as [|v|sub|ts asp]; try constructor.
    - change (render_item ftext (ITable sub)) with (ITable (rt sub)). cbv beta iota. destruct He as (Hsb & Hq & _).
      apply (sections_none sub _ false Hq), (IH Hsb).
    - change (render_item ftext (IAot ts asp)) with (IAot (map rt ts) asp). cbv beta iota. apply Forall_flat_map, Forall_map, Forall_forall. intros e Hine.
      destruct (all_P_In _ _ _ He Hine) as [Hsb Hq]. rewrite Forall_forall in IH. apply (sections_none e _ true Hq), (IH e Hine Hsb).
  Qed.

  (* ---- THE theorem ---------------------------------------------------------------------------------------------------------- *)
  Theorem built_WF t : BuiltTbl PS PK t -> aot_ne t = true -> tbl_hdepth t < LIMIT -> tbl_vdepth t < LIMIT -> WF (rt t).
  Proof.
    intros (l & im & pos & Hb & Hpos & ->) Hne Hh Hv.
    pose proof (built_bshape _ l im pos eq_refl Hb) as Hs. set (t := Tbl (mk_tbl_items l) decor_default im false pos None) in *.
    destruct (rt_flags t) as (_ & _ & Fd & Fq). split; [rewrite Fd; reflexivity|]. split; [apply (built_tbl_wf t Hs Hne)|].
    split; [apply (built_tbl_lim t Hs 0); [exact Hh|exact Hv]|].
    unfold order_ok. rewrite sections_eq, Fd. change (t_dotted t) with false. cbn [app assign_positions map fst].
    assert (E : match t_position (rt t) with Some q => q | None => 0%N end = 0%N) by (rewrite Fq; destruct Hpos as [->| ->]; reflexivity).
    rewrite E. apply nd_const, (built_sections t Hs).
  Qed.

  Theorem built_WFdoc t : BuiltTbl PS PK t -> aot_ne t = true -> tbl_hdepth t < LIMIT -> tbl_vdepth t < LIMIT -> WFdoc (rt t) REmpty.
  Proof. intros H1 H2 H3 H4. split; [apply (built_WF t H1 H2 H3 H4)|apply empty_raw_ok]. Qed.
End B.

(* ---- the leaves of C06: scalar_ok, UTF-8 keys, floats with their text ------------------------------------------------------ *)
From TV Require Import Proofs.StringsRTDefs Proofs.NumbersRT_Lex Proofs.NumbersRT_Int Proofs.NumbersRT_Float
                       Proofs.BuiltRTLeaf Proofs.BuiltRTValue Proofs.BuiltRTTop Proofs.WFTok.

Lemma float_text_tok f : float_leaf f -> float_tok (float_text f) f.
Proof.
  destruct f as [n|n|neg m e]; intro Hf.
  - destruct n; (eapply float_whole; [vm_compute; reflexivity|reflexivity]).
  - destruct n; (eapply float_whole; [vm_compute; reflexivity|reflexivity]).
  - destruct Hf as [He Ho].
    destruct (float_text_dec neg m e He) as (ip & fp & Et & Hip & Hfp & Hne & Hv & Hlen).
    destruct (ip_digits _ Hip) as [Hid Hine].
    set (pre := (if neg then [dash] else []) ++ ip).
    assert (Et' : float_text (FDec neg m e) = pre ++ dot :: fp) by (rewrite Et; unfold pre; rewrite <- app_assoc; reflexivity).
    assert (EL : dec_int_len ((pre ++ dot :: fp) ++ []) = LOk (length pre)).
    { rewrite <- app_assoc. cbn [app]. apply (dec_int_len_plain neg ip (fp ++ []) Hip). }
    apply (float_whole _ _ (after (pre ++ dot :: fp) [] 0%N 0)); [|reflexivity].
    rewrite Et'. unfold new_input. rewrite <- (app_nil_r (pre ++ dot :: fp)) at 1.
    unfold float, context, alt, and_then. rewrite (float__ctx pre fp [] 0%N 0 EL Hne Hfp I).
    unfold float_of.
    assert (Hnu : forallb not_us (pre ++ dot :: fp) = true).
    { unfold pre. rewrite !forallb_app. cbn [forallb].
      rewrite (forallb_impl is_digit _ ip digit_not_us Hid), (forallb_impl is_digit _ fp digit_not_us Hfp).
      destruct neg; reflexivity. }
    rewrite (remove_us_id _ Hnu). unfold pre. rewrite <- app_assoc.
    rewrite (fdec_of_plain neg ip fp Hid Hine Hfp). rewrite Hv, Hlen, Ho. cbn [andb]. reflexivity.
Qed.

Lemma scalar_ok_leaf s : scalar_ok s -> scalar_lim s /\ match s with SFloat f => float_tok (float_text f) f | _ => default_ok s end.
Proof.
  destruct s as [x|z|f|b|d]; cbn [scalar_ok scalar_lim default_ok]; intro H.
  - split; [exact I|exact H].
  - split; [exact H|exact I].
  - split; [destruct f as [n|n|neg m e]; [exact I|exact I|exact (proj2 H)]|apply float_text_tok, H].
  - split; exact I.
  - split; [exact I|exact H].
Qed.

(* whatever C06's constructors build, with the floats' texts, is a well-formed document *)
Theorem constructed_WF t :
  BuiltTbl scalar_ok key_ok t -> aot_ne t = true -> tbl_hdepth t < LIMIT -> tbl_vdepth t < LIMIT -> WFdoc (render_tbl float_text t) REmpty.
Proof. apply (built_WFdoc float_text scalar_ok key_ok scalar_ok_leaf (fun k H => H)). Qed.

(* ... hence it prints as a text that is accepted and decodes to the data Display of the tree defines (kinds included) *)
From TV Require Import Proofs.GrammarBase Proofs.WFPrintTop.
Theorem constructed_print_parse t :
  BuiltTbl scalar_ok key_ok t -> aot_ne t = true -> tbl_hdepth t < LIMIT -> tbl_vdepth t < LIMIT ->
  exists d, parse_document (display_document (render_tbl float_text t) REmpty) = POk d
            /\ abs_doc d = abs_doc_of (render_tbl float_text t).
Proof. intros H1 H2 H3 H4. apply WF_print_parse, constructed_WF; assumption. Qed.
