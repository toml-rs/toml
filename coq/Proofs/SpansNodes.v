(* Proofs/SpansNodes.v — C14, re-parsing at document level, part 1: the keys and value nodes of the tree.

   `tbl_nodes t` lists, for every key stored anywhere in t, the pair (key text, repr), and for every value
   node that is written as a value in the source (scalars, arrays, braces-delimited inline tables — not the
   tables made of dotted keys), the pair (span, data).  The state machine and the inline-table builder never
   change such a pair: every node of what they build is a node of what they were given.  So any property P of
   nodes established where the parser creates them holds for the whole document. *)
From TV Require Import Base.Prelude Base.Winnow Spec.Syntax.
From TV Require Import Model.Tree Model.Parse Model.Document.
From TV Require Import Proofs.GrammarBase.
From TV Require Import Proofs.SpansState.
From TV Require Import Proofs.KvFacts.
From TV Require Import Proofs.ModelFacts.
From TV Require Import Proofs.DocumentOps.
Require Import Lia.

Inductive nnode : Type :=
| NKey (text : bytes) (repr : option raw)
| NVal (sp : ospan) (d : dval).

Definition nk (k : key) : nnode := NKey (k_key k) (k_repr k).
(* tables made of dotted keys are not written as values *)
Definition exempt (v : value) : bool := match v with VInline _ _ im dt _ _ => im || dt | _ => false end.
Definition own_node (v : value) : list nnode := if exempt v then [] else [NVal (value_span v) (absv v)].

Fixpoint value_nodes (v : value) : list nnode :=
  own_node v ++
  match v with
  | VScalar _ _ _ => []
  | VArray vals _ _ _ _ => flat_map item_nodes vals
  | VInline items _ _ _ _ _ => flat_map (fun kv => nk (fst kv) :: item_nodes (snd kv)) items
  end
with item_nodes (it : item) : list nnode :=
  match it with
  | INone => []
  | IValue v => value_nodes v
  | ITable t => tbl_nodes t
  | IAot ts _ => flat_map tbl_nodes ts
  end
with tbl_nodes (t : tbl) : list nnode :=
  match t with
  | Tbl items _ _ _ _ _ => flat_map (fun kv => nk (fst kv) :: item_nodes (snd kv)) items
  end.

Definition items_nodes (m : kvs) : list nnode := flat_map (fun kv => nk (fst kv) :: item_nodes (snd kv)) m.
Definition sub_nodes (v : value) : list nnode :=
  match v with
  | VScalar _ _ _ => []
  | VArray vals _ _ _ _ => flat_map item_nodes vals
  | VInline items _ _ _ _ _ => items_nodes items
  end.

Lemma value_nodes_eq v : value_nodes v = own_node v ++ sub_nodes v.
Proof. destruct v; reflexivity. Qed.
Lemma tbl_nodes_eq t : tbl_nodes t = items_nodes (t_items t).
Proof. destruct t; reflexivity. Qed.
Lemma item_nodes_value v : item_nodes (IValue v) = value_nodes v. Proof. reflexivity. Qed.
Lemma item_nodes_table t : item_nodes (ITable t) = tbl_nodes t. Proof. reflexivity. Qed.
Lemma item_nodes_aot ts sp : item_nodes (IAot ts sp) = flat_map tbl_nodes ts. Proof. reflexivity. Qed.
Lemma tbl_nodes_set_items t m : tbl_nodes (t_set_items t m) = items_nodes m.
Proof. destruct t; reflexivity. Qed.
Lemma tbl_nodes_set_span t s : tbl_nodes (t_set_span t s) = tbl_nodes t.
Proof. destruct t; reflexivity. Qed.

Lemma value_nodes_decorate v p s : value_nodes (value_decorate v p s) = value_nodes v.
Proof. destruct v; reflexivity. Qed.
Lemma nk_set_leaf k d : nk (set_leaf k d) = nk k. Proof. reflexivity. Qed.
Lemma nk_set_dotted_prefix k r : nk (set_dotted_prefix k r) = nk k. Proof. reflexivity. Qed.
Lemma nk_set_dotted_suffix k r : nk (set_dotted_suffix k r) = nk k. Proof. reflexivity. Qed.

Lemma fix_key_path_nk path p : fix_key_path path = Some p -> map nk p = map nk path.
Proof. apply (fix_key_path_map nk nk_set_leaf nk_set_dotted_prefix nk_set_dotted_suffix). Qed.

(* ---- data is insensitive to the span bookkeeping ---------------------------------------------------------------- *)
Lemma absi_kv_set m k k0 old new :
  kv_get m k = Some (k0, old) -> absi new = absi old -> map absi_kv (kv_set m k new) = map absi_kv m.
Proof. intros G E. apply (kv_set_map absi_kv _ _ _ _ _ G). unfold absi_kv. cbn [fst snd]. rewrite E. reflexivity. Qed.
Lemma inline_set_spans_abs : forall path m ve, map absi_kv (inline_set_spans m path ve) = map absi_kv m.
Proof.
  induction path as [|k ptl IH]; intros m ve; cbn [inline_set_spans]; [reflexivity|].
  destruct (kv_get m (k_key k)) as [[k' it]|] eqn:G; [|reflexivity]. destruct it as [|val| |]; try reflexivity.
  destruct val as [s r d|vals tr c d sp|sub pre imp dt dec sp]; try reflexivity.
  eapply absi_kv_set; [exact G|]. cbn [absi]. rewrite !absv_inline, IH. reflexivity.
Qed.

Section P.
  Variable P : nnode -> Prop.
  Notation FP := (Forall P).

  Lemma Forall_flat_map {A} (f : A -> list nnode) l : Forall (fun a => FP (f a)) l -> FP (flat_map f l).
  Proof. induction 1 as [|a l Ha _ IH]; [constructor|]. cbn [flat_map]. apply Forall_app. auto. Qed.
  Lemma Forall_flat_map_inv {A} (f : A -> list nnode) l : FP (flat_map f l) -> Forall (fun a => FP (f a)) l.
  Proof.
    induction l as [|a l IH]; [constructor|]. cbn [flat_map]. intro H. apply Forall_app in H as [H1 H2]. constructor; auto.
  Qed.

  (* ---- association lists ------------------------------------------------------------------------------------------ *)
  Definition entry_n (kv : key * item) : Prop := P (nk (fst kv)) /\ FP (item_nodes (snd kv)).
  Lemma items_nodes_Forall m : FP (items_nodes m) <-> Forall entry_n m.
  Proof.
    unfold items_nodes. induction m as [|[k v] m IH]; cbn [flat_map fst snd]; [split; constructor|]. split.
    - intro H. inversion H as [|? ? H1 H2]; subst. apply Forall_app in H2 as [H2 H3]. constructor; [split; assumption|apply IH, H3].
    - intro H. inversion H as [|? ? [H1 H2] H3]; subst. constructor; [exact H1|]. apply Forall_app. split; [exact H2|apply IH, H3].
  Qed.
  Lemma nodes_get m k k' it : FP (items_nodes m) -> kv_get m k = Some (k', it) -> P (nk k') /\ FP (item_nodes it).
  Proof. intros H E. apply items_nodes_Forall in H. exact (kv_get_Forall entry_n _ _ _ _ H E). Qed.
  Lemma nodes_push m k v : FP (items_nodes m) -> P (nk k) -> FP (item_nodes v) -> FP (items_nodes (kv_push m k v)).
  Proof. intros H1 H2 H3. apply items_nodes_Forall, (kv_push_Forall entry_n); [apply items_nodes_Forall, H1|split; assumption]. Qed.
  Lemma nodes_set m k v : FP (items_nodes m) -> FP (item_nodes v) -> FP (items_nodes (kv_set m k v)).
  Proof.
    intros H1 H2. apply items_nodes_Forall, (kv_set_Forall entry_n); [apply items_nodes_Forall, H1|]. intros k0 old _ [H _]. split; assumption.
  Qed.
  Lemma nodes_remove m k : FP (items_nodes m) -> FP (items_nodes (kv_remove m k)).
  Proof. intro H. apply items_nodes_Forall, (kv_remove_Forall entry_n), items_nodes_Forall, H. Qed.

  (* ---- inline tables ------------------------------------------------------------------------------------------------ *)
  Lemma inline_insert_n : forall path m dh pe k v m',
    FP (items_nodes m) -> FP (map nk path) -> P (nk k) -> FP (item_nodes v) ->
    inline_insert m dh path pe k v = COk m' -> FP (items_nodes m').
  Proof.
    intros path m dh pe k v m' Hm Hp Hk Hv E. revert Hm Hp.
    apply (SpansValue.inline_insert_ind pe k v (fun m path m' => FP (items_nodes m) -> FP (map nk path) -> FP (items_nodes m'))) with (4 := E).
    - intros m0 _ Hm _. apply nodes_push; assumption.
    - intros m0 pk ptl sub' _ IH Hm Hp. inversion Hp as [|? ? Hpk Hptl]; subst.
      apply nodes_push; [exact Hm|exact Hpk|]. apply IH; [constructor|exact Hptl].
    - intros m0 pk ptl k' sub pre dt dec sp sub' G IH Hm Hp. inversion Hp as [|? ? _ Hptl]; subst.
      destruct (nodes_get _ _ _ _ Hm G) as [_ Hit]. apply nodes_set; [exact Hm|]. apply IH; [exact Hit|exact Hptl].
  Qed.

  Definition pair_n (x : list key * (key * item)) : Prop :=
    FP (map nk (fst x)) /\ P (nk (fst (snd x))) /\ FP (item_nodes (snd (snd x))).

  Lemma table_from_pairs_loop_d_n : forall pairs m m',
    FP (items_nodes m) -> Forall pair_n pairs -> table_from_pairs_loop_d m pairs = COk m' -> FP (items_nodes m').
  Proof.
    induction pairs as [|[path [k v]] tl IH]; intros m m' Hm Hp E; cbn [table_from_pairs_loop_d] in E.
    - inversion E; subst. exact Hm.
    - inversion Hp as [|? ? Hx Htl]; subst. destruct Hx as (H1 & H2 & H3). cbn [fst snd] in *.
      destruct (check_depth _); [discriminate|].
      destruct (inline_insert m false path _ k v) as [m1| |] eqn:R; try discriminate E.
      eapply IH; [|exact Htl|exact E]. eapply inline_insert_n; eauto.
  Qed.

  Lemma inline_set_spans_n : forall path m ve, FP (items_nodes m) -> FP (items_nodes (inline_set_spans m path ve)).
  Proof.
    induction path as [|k ptl IH]; intros m ve Hm; cbn [inline_set_spans]; [exact Hm|].
    destruct (kv_get m (k_key k)) as [[k' it]|] eqn:G; [|exact Hm].
    destruct (nodes_get _ _ _ _ Hm G) as [_ Hit]. destruct it as [|val| |]; try exact Hm.
    destruct val as [s r d|vals tr c d sp|sub pre imp dt dec sp]; try exact Hm.
    apply nodes_set; [exact Hm|]. rewrite item_nodes_value, value_nodes_eq in *. apply Forall_app in Hit as [H1 H2].
    apply Forall_app. split; [|cbn [sub_nodes] in *; apply IH, H2].
    unfold own_node in *. cbn [exempt] in *. destruct (imp || dt) eqn:Ex; [constructor|].
    destruct dt; [rewrite orb_true_r in Ex; discriminate|]. cbn [value_span] in *.
    rewrite !absv_inline in *. rewrite inline_set_spans_abs. exact H1.
  Qed.
  Lemma inline_spans_pass_n : forall pairs m, FP (items_nodes m) -> FP (items_nodes (inline_spans_pass m pairs)).
  Proof.
    unfold inline_spans_pass. induction pairs as [|[path [k v]] tl IH]; intros m Hm; cbn [fold_left]; [exact Hm|].
    apply IH, inline_set_spans_n, Hm.
  Qed.

  Lemma table_from_pairs_n pairs pre v :
    Forall pair_n pairs -> table_from_pairs pairs pre = TmOk v -> FP (sub_nodes v) /\ exempt v = false /\ value_span v = None.
  Proof.
    intros Hp E. unfold table_from_pairs in E.
    destruct (table_from_pairs_loop_d [] pairs) as [m| |] eqn:R; try discriminate E. inversion E; subst.
    cbn [sub_nodes exempt orb value_span]. repeat split. apply inline_spans_pass_n.
    eapply table_from_pairs_loop_d_n; [|exact Hp|exact R]. constructor.
  Qed.

  (* ---- descend_path / the state machine -------------------------------------------------------------------------------- *)
  Lemma wta_n {X} (Q : X -> Prop) : forall path t dotted (f : tbl -> cres (tbl * X)),
    FP (tbl_nodes t) -> FP (map nk path) ->
    (forall p, FP (tbl_nodes p) -> cres_post (fun p' x => FP (tbl_nodes p') /\ Q x) (f p)) ->
    cres_post (fun t' x => FP (tbl_nodes t') /\ Q x) (with_table_at t path dotted f).
  Proof.
    intros path t dotted f Ht Hp Hf. destruct (with_table_at t path dotted f) as [[t' x]| |] eqn:E; [|exact I|exact I].
    revert Ht Hp. cbn [cres_post].
    apply (wta_ind dotted f x (fun p t t' => FP (tbl_nodes t) -> FP (map nk p) -> FP (tbl_nodes t') /\ Q x)); [| | | |exact E].
    - intros u u' Eu Hu _. specialize (Hf u Hu). rewrite Eu in Hf. exact Hf.
    - intros u k p sub' G IH Hu Hk. inversion Hk as [|? ? Hk1 Hp]; subst. destruct (IH (Forall_nil _) Hp) as [Hs Hq].
      split; [|exact Hq]. rewrite tbl_nodes_set_items. rewrite tbl_nodes_eq in Hu. apply nodes_push; assumption.
    - intros u k p k' sub sub' G IH Hu Hk. inversion Hk as [|? ? _ Hp]; subst. rewrite tbl_nodes_eq in Hu.
      destruct (nodes_get _ _ _ _ Hu G) as [_ Hit]. destruct (IH Hit Hp) as [Hs Hq].
      split; [|exact Hq]. rewrite tbl_nodes_set_items. apply nodes_set; assumption.
    - intros u k p k' ts sp last rinit last' G Rv IH Hu Hk. inversion Hk as [|? ? _ Hp]; subst. rewrite tbl_nodes_eq in Hu.
      destruct (nodes_get _ _ _ _ Hu G) as [_ Hit]. rewrite item_nodes_aot in Hit. apply Forall_flat_map_inv, Forall_rev in Hit.
      rewrite Rv in Hit. inversion Hit as [|? ? Hl Hr]; subst. destruct (IH Hl Hp) as [Hs Hq].
      split; [|exact Hq]. rewrite tbl_nodes_set_items. apply nodes_set; [exact Hu|]. rewrite item_nodes_aot.
      apply Forall_flat_map, Forall_rev. constructor; assumption.
  Qed.

  Lemma items_nodes_set_same m k k0 old new :
    kv_get m k = Some (k0, old) -> item_nodes new = item_nodes old -> items_nodes (kv_set m k new) = items_nodes m.
  Proof.
    intros G E. unfold items_nodes. destruct (kv_get_split m k k0 old G) as (A & C & -> & _ & -> & _).
    rewrite !flat_map_app. cbn [flat_map fst snd]. rewrite E. reflexivity.
  Qed.
  Lemma set_dotted_spans_nodes : forall path t ve, tbl_nodes (set_dotted_spans t path ve) = tbl_nodes t.
  Proof.
    induction path as [|k ptl IH]; intros t ve; [reflexivity|].
    destruct (set_dotted_spans_cons t k ptl ve) as [->|(k0 & sub & sp & G & ->)]; [reflexivity|].
    rewrite tbl_nodes_set_items, tbl_nodes_eq. eapply items_nodes_set_same; [exact G|].
    rewrite !item_nodes_table, IH. apply tbl_nodes_set_span.
  Qed.

  Definition st_n (st : pstate) : Prop :=
    FP (tbl_nodes (st_root st)) /\ FP (tbl_nodes (st_current st)) /\ FP (map nk (st_path st)).

  Lemma st_n_new : st_n state_new.
  Proof. unfold st_n. cbn. repeat split; constructor. Qed.
  Lemma st_n_on_ws st sp : st_n st -> st_n (on_ws st sp).
  Proof. intro H. exact H. Qed.

  Lemma f_keyval_n k v top : P (nk k) -> FP (item_nodes v) ->
    forall t, FP (tbl_nodes t) -> cres_post (fun t' (_ : unit) => FP (tbl_nodes t') /\ True) (f_keyval k v top t).
  Proof.
    intros Hk Hv t Ht. unfold f_keyval. destruct (Bool.eqb _ _); [exact I|]. destruct (kv_get _ _); [exact I|].
    split; [|exact I]. rewrite tbl_nodes_set_items. rewrite tbl_nodes_eq in Ht. apply nodes_push; assumption.
  Qed.

  Lemma on_keyval_sp_n st path k v st' :
    st_n st -> FP (map nk path) -> P (nk k) -> FP (item_nodes v) -> on_keyval_sp st path k v = COk st' -> st_n st'.
  Proof.
    intros (Hr & Hc & Hp) Hpath Hk Hv E. apply on_keyval_sp_inv in E as (st1 & R & ->).
    apply on_keyval_inv in R as (cur' & W & ->).
    assert (X : cres_post (fun t' (_ : unit) => FP (tbl_nodes t') /\ True) (COk (cur', tt))).
    { rewrite <- W. apply (wta_n (fun _ => True)); [|exact Hpath|apply f_keyval_n; [exact Hk|exact Hv]].
      unfold kv_cur. destruct (t_span (st_current st)); [|exact Hc]. destruct (item_span v); [|exact Hc].
      rewrite tbl_nodes_set_span. exact Hc. }
    destruct X as [X _]. unfold st_n; cbn [st_root st_current st_path]. rewrite set_dotted_spans_nodes. auto.
  Qed.

  Lemma pop_key_n kp path k : FP (map nk kp) -> pop_key kp = Some (path, k) -> FP (map nk path) /\ P (nk k).
  Proof.
    intros H E. unfold pop_key in E. destruct (rev kp) as [|last rinit] eqn:R; [discriminate|]. inversion E; subst.
    apply (f_equal (@rev key)) in R. rewrite rev_involutive in R. subst kp. cbn [rev] in H. rewrite map_app in H.
    apply Forall_app in H as [H1 H2]. cbn [map] in H2. inversion H2; subst. auto.
  Qed.

  Lemma f_fin_aot_n k table parent : P (nk k) -> FP (tbl_nodes table) -> FP (tbl_nodes parent) ->
    cres_post (fun p' (_ : unit) => FP (tbl_nodes p') /\ True) (f_fin_aot k table parent).
  Proof.
    intros Hk Hc Hi. rewrite tbl_nodes_eq in Hi. unfold f_fin_aot. destruct (kv_get (t_items parent) (k_key k)) as [[k' it]|] eqn:G.
    - destruct (nodes_get _ _ _ _ Hi G) as [_ Hit]. destruct it as [|v|t|ts sp]; try exact I. cbv zeta.
      split; [|exact I]. rewrite tbl_nodes_set_items. apply nodes_set; [exact Hi|].
      rewrite item_nodes_aot in *. rewrite flat_map_app. apply Forall_app. split; [exact Hit|]. cbn [flat_map]. rewrite app_nil_r. exact Hc.
    - split; [|exact I]. rewrite tbl_nodes_set_items. apply nodes_push; [exact Hi|exact Hk|].
      rewrite item_nodes_aot. cbn [flat_map]. rewrite app_nil_r. exact Hc.
  Qed.
  Lemma f_fin_std_n k table parent : P (nk k) -> FP (tbl_nodes table) -> FP (tbl_nodes parent) ->
    cres_post (fun p' (_ : unit) => FP (tbl_nodes p') /\ True) (f_fin_std k table parent).
  Proof.
    intros Hk Hc Hi. rewrite tbl_nodes_eq in Hi. unfold f_fin_std. destruct (kv_get (t_items parent) (k_key k)) as [[k' it]|].
    - destruct it as [|v|t|ts sp]; try exact I. destruct (t_implicit t); [|exact I]. split; [|exact I].
      rewrite tbl_nodes_set_items. apply nodes_set; [exact Hi|]. rewrite item_nodes_table. exact Hc.
    - split; [|exact I]. rewrite tbl_nodes_set_items. apply nodes_push; [exact Hi|exact Hk|]. rewrite item_nodes_table. exact Hc.
  Qed.

  Lemma finalize_n st st' :
    st_n st -> finalize_table st = COk st' -> FP (tbl_nodes (st_root st')) /\ st_current st' = tbl_new /\ st_path st' = [].
  Proof.
    intros (Hr & Hc & Hp) E. apply finalize_inv in E as (root' & -> & E). cbn [st_current st_root st_path]. repeat split.
    destruct (pop_key (st_path st)) as [[ppath k]|] eqn:Pk; [|destruct E as [_ ->]; exact Hc].
    destruct (pop_key_n _ _ _ Hp Pk) as [Hpp Hk].
    assert (X : cres_post (fun t' (_ : unit) => FP (tbl_nodes t') /\ True) (COk (root', tt))); [|apply X].
    rewrite <- E. apply (wta_n (fun _ => True)); [exact Hr|exact Hpp|].
    intros parent Hpar. destruct (st_is_array st); [apply f_fin_aot_n; assumption|apply f_fin_std_n; assumption].
  Qed.

  Lemma f_start_aot_n k : P (nk k) -> forall parent, FP (tbl_nodes parent) ->
    cres_post (fun p' (_ : unit) => FP (tbl_nodes p') /\ True) (f_start_aot k parent).
  Proof.
    intros Hk parent Hpar. unfold f_start_aot. destruct (kv_get (t_items parent) (k_key k)) as [[k' it]|].
    - destruct it; try exact I. cbn [cres_post]. auto.
    - split; [|exact I]. rewrite tbl_nodes_set_items. rewrite tbl_nodes_eq in Hpar.
      apply nodes_push; [exact Hpar|exact Hk|constructor].
  Qed.
  Lemma f_start_std_n k parent : FP (tbl_nodes parent) ->
    cres_post (fun p' x => FP (tbl_nodes p') /\ match x with Some t => FP (tbl_nodes t) | None => True end)
              (f_start_std k parent).
  Proof.
    intros Hpar. pose proof Hpar as Hi. rewrite tbl_nodes_eq in Hi. unfold f_start_std.
    destruct (kv_get (t_items parent) (k_key k)) as [[k' it]|] eqn:G; [|cbn [cres_post]; auto].
    destruct (nodes_get _ _ _ _ Hi G) as [_ Hit].
    destruct it as [|v|t|ts sp0]; try exact I. destruct (t_implicit t && negb (t_dotted t)); [|exact I].
    split; [|exact Hit]. rewrite tbl_nodes_set_items. apply nodes_remove, Hi.
  Qed.

  Lemma start_n (ia : bool) st path dec sp st' :
    FP (tbl_nodes (st_root st)) -> st_current st = tbl_new -> FP (map nk path) ->
    (if ia then start_array_table st path dec sp else start_table st path dec sp) = COk st' -> st_n st'.
  Proof.
    intros Hr Hc Hpath E. destruct ia.
    - apply start_array_table_inv in E as (_ & _ & ppath & k & root' & Pk & W & ->).
      destruct (pop_key_n _ _ _ Hpath Pk) as [Hpp Hk].
      assert (X : cres_post (fun t' (_ : unit) => FP (tbl_nodes t') /\ True) (COk (root', tt))).
      { rewrite <- W. apply (wta_n (fun _ => True)); [exact Hr|exact Hpp|apply f_start_aot_n, Hk]. }
      destruct X as [X _]. unfold open_table, st_n. cbn [st_current st_root st_path]. rewrite Hc.
      cbn [t_items tbl_new tbl_nodes flat_map]. repeat split; auto.
    - apply start_table_inv in E as (_ & _ & ppath & k & root' & tk & Pk & W & ->).
      destruct (pop_key_n _ _ _ Hpath Pk) as [Hpp Hk].
      assert (X : cres_post (fun t' x => FP (tbl_nodes t') /\ match x with Some t => FP (tbl_nodes t) | None => True end)
                            (COk (root', tk))).
      { rewrite <- W. apply wta_n; [exact Hr|exact Hpp|apply f_start_std_n]. }
      destruct X as [X Xt]. unfold open_table, st_n. cbn [st_current st_root st_path]. repeat split; auto.
      cbn [tbl_nodes]. fold (items_nodes (t_items match tk with Some t => t | None => st_current st end)).
      destruct tk as [t|]; [rewrite <- tbl_nodes_eq; exact Xt|rewrite Hc; constructor].
  Qed.

  Lemma on_header_n (ia : bool) st path trailing sp st' :
    st_n st -> FP (map nk path) -> on_header ia st path trailing sp = COk st' -> st_n st'.
  Proof.
    intros Hst Hpath E. unfold on_header in E. destruct path as [|k0 ptl] eqn:Ep; [discriminate|]. rewrite <- Ep in *.
    destruct (finalize_table st) as [st1| |] eqn:F; try discriminate E.
    destruct (finalize_n _ _ Hst F) as (Hr & Hc & Hp). unfold take_trailing in E.
    eapply (start_n ia); [| | |exact E]; cbn [st_root st_current]; auto.
  Qed.
End P.
