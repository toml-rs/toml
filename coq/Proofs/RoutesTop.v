(* Proofs/RoutesTop.v — C13 on serializer output: try_from against the parsed text, and every decoding
   route on the trees toml::to_string / toml::ser::ValueSerializer build. *)
From TV Require Import Base.Prelude Model.SerNum Spec.SerdeData Model.Ser Model.De Model.SerdeRoutes Proofs.SerdeRTBase
  Proofs.SerdeRT Proofs.SerdeRTRoot Proofs.SerdeRTRefuse Proofs.SerdeRTTv Proofs.RoutesConv Extract.Show.
Require Import String.

(* toml's document Serializer refuses some roots by itself (a struct variant, a tuple variant); what it accepts it
   hands to toml_edit's (a root struct's name is passed on since the repair of C06-root-datetime-printed-as-table,
   so this holds for every root) *)
Lemma toml_root_is_edit t v out : ser_toml_root t v = Ok out -> ser_edit_root t v = Ok out.
Proof.
  intro H. destruct t; try (destruct v; exact H).
  destruct v as [| | | | | | | | | | | | | |i p]; try exact H. simpl in H.
  match type of H with pick ?f ?d vs i = _ => destruct (pick_cases f d vs i) as [([vn var] & Hn & E)|[_ E]]; rewrite E in H end;
    [|discriminate H].
  simpl in H. destruct var; try discriminate H; try exact H.
  destruct p; try discriminate H. destruct (zipM ser_value ts vs0); discriminate H.
Qed.

(* so the document toml::to_string writes is what ValueSerializer builds, and is a table *)
Lemma toml_root_is_value t v out : ser_toml_root t v = Ok out -> ser_value t v = Ok out.
Proof. intro H. apply toml_root_is_edit, edit_root_is_table in H as (es & _ & E). exact E. Qed.

Lemma toml_root_is_table t v out : ser_toml_root t v = Ok out -> exists es, out = VTab es.
Proof. intro H. apply toml_root_is_edit, edit_root_is_table in H as (es & -> & _). eauto. Qed.

Lemma ttv_nodup es y : first_key_plain es = true -> to_toml_value (VTab es) = Ok y -> nodup_bytes (map fst es) = true.
Proof.
  intros Hf H. rewrite (ttv_tab_plain es Hf) in H. apply rbind_ok in H as (es' & E & H).
  destruct (conv_entries_inv es es' E) as [_ Hk]. rewrite <- Hk. destruct (nodup_bytes (map fst es')); [reflexivity|discriminate H].
Qed.

(* Value::try_from(v) and Table::try_from(v) give the tree the serialized text parses to *)
Theorem try_from_is_parsed_text t v out : has_type v t -> ser_toml_root t v = Ok out -> tunnel_free out = true ->
  exists y, to_toml_value out = Ok y /\ to_toml_table out = Ok y /\ tv_ser t v = Ok y
            /\ (forall y', tv_ser_table t v = Ok y' -> y' = y).
Proof.
  intros Hty H Hf. pose proof (toml_root_is_value t v out H) as Hv.
  destruct (try_from_twin t v out Hty Hv Hf) as (y & C & T).
  exists y. split; [exact C|]. split; [|split; [exact T|]].
  - rewrite plain_root_same; [exact C|].
    destruct (toml_root_is_table t v out H) as (es & ->).
    destruct (tunnel_free_tab es Hf) as [Hfirst _]. unfold plain_root.
    rewrite (ttv_nodup es y Hfirst C). exact Hfirst.
  - intros y' Ht. pose proof (tv_table_is_value t v y' Hty Ht) as E. congruence.
Qed.

(* ---- every decoding route on the document toml::to_string writes ---- *)
Definition edit_family (r : dec_route) : bool :=
  match r with R_tval | R_ttab | R_tvdval => false | _ => true end.

Lemma decode_edit r t x : edit_family r = true -> decode r t x = de_value t x.
Proof. destruct r; try discriminate; reflexivity. Qed.

Lemma ser_ok_supported t v x : has_type v t -> ser_value t v = Ok x -> supported t v.
Proof. intros Hty H. apply (ser_ok_iff_supported t v Hty). eauto. Qed.

Theorem on_serialized_doc t v out : has_type v t -> ser_toml_root t v = Ok out ->
  (forall r, edit_family r = true -> exists v', decode r t out = Ok v' /\ sval_eq v v')
  /\ (tunnel_free out = true ->
      forall r, r = R_tval \/ r = R_ttab -> exists v', decode r t out = Ok v' /\ sval_eq v v').
Proof.
  intros Hty H. split.
  - intros r Hr. rewrite (decode_edit r t out Hr). apply (toml_root_roundtrip t v out Hty H).
  - intros Hf r Hr.
    destruct (try_from_is_parsed_text t v out Hty H Hf) as (y & C1 & C2 & T & _).
    pose proof (toml_root_is_value t v out H) as Hv.
    pose proof (tv_roundtrip_supported t v y Hty (ser_ok_supported t v out Hty Hv) T) as R.
    destruct Hr as [-> | ->]; simpl; [rewrite C1|rewrite C2]; exact R.
Qed.

(* ---- ... and on the text of a single value (toml::ser::ValueSerializer) ---- *)
Lemma value_text_is_value t v x : ser_value_text t v = Ok x -> ser_value t v = Ok x.
Proof.
  intros H. destruct t; try (destruct v; exact H).
  destruct v as [| | | | | | | | | | | | | |i p]; try exact H. simpl in H.
  match type of H with pick ?f ?d vs i = _ => destruct (pick_cases f d vs i) as [([vn var] & Hn & E)|[_ E]]; rewrite E in H end;
    [|discriminate H].
  simpl in H. destruct var; try discriminate H; exact H.
Qed.

Theorem on_serialized_value t v x : has_type v t -> ser_value_text t v = Ok x ->
  (forall r, r = R_tvd \/ r = R_evd -> exists v', decode r t x = Ok v' /\ sval_eq v v')
  /\ (tunnel_free x = true -> exists v', decode R_tvdval t x = Ok v' /\ sval_eq v v').
Proof.
  intros Hty H. pose proof (value_text_is_value t v x H) as Hv. split.
  - intros r Hr. assert (decode r t x = de_value t x) as -> by (destruct Hr as [-> | ->]; reflexivity).
    apply (roundtrip_value t v x Hty Hv).
  - intro Hf. destruct (try_from_twin t v x Hty Hv Hf) as (y & C & T). simpl. rewrite C. simpl.
    apply (tv_roundtrip_supported t v y Hty (ser_ok_supported t v x Hty Hv) T).
Qed.

(* the witness of C13-valueser-root-tuple-variant (repaired): enum E { T(i32, i32) }, E::T(1, 2) is
   written as { T = [1, 2] } — what toml_edit's ValueSerializer writes — and reads back *)
Definition tvr_ty : ty := TEnum (str "E") [(str "T", VTuple [TInt TI32; TInt TI32])].
Definition tvr_val : sval := SVariant 0 (SSeq [SInt 1; SInt 2]).

Theorem on_serialized_value_tuple_variant :
  has_type tvr_val tvr_ty
  /\ ser_value_text tvr_ty tvr_val = Ok (VTab [(str "T", VArr [VInt 1; VInt 2])])
  /\ ser_value_text tvr_ty tvr_val = ser_value tvr_ty tvr_val
  /\ decode R_tvd tvr_ty (VTab [(str "T", VArr [VInt 1; VInt 2])]) = Ok tvr_val
  /\ decode R_evd tvr_ty (VTab [(str "T", VArr [VInt 1; VInt 2])]) = Ok tvr_val
  /\ decode R_tvdval tvr_ty (VTab [(str "T", VArr [VInt 1; VInt 2])]) = Ok tvr_val.
Proof. repeat split; vm_compute; reflexivity. Qed.

(* ---- the converse (since the repair of C07-tryfrom-nested-none-dropped): Value::try_from accepts nothing the
   value serializer of the text routes refuses, and Table::try_from nothing Value::try_from refuses — so try_from and
   serialize-then-parse give the same verdict, and on success the same tree.  doc_keys: map keys of type char /
   Option<_>, which SerializeMap::serialize_key accepts and a document cannot have. ---- *)
Theorem try_from_same_verdict t v : has_type v t -> doc_keys t = true ->
  ((exists y, tv_ser t v = Ok y) <-> (exists x, ser_value t v = Ok x)).
Proof. exact (tv_same_verdict t v). Qed.

Theorem try_from_accepts_only_serializable t v y : has_type v t -> doc_keys t = true -> tv_ser t v = Ok y ->
  exists x, ser_value t v = Ok x /\ (tunnel_free x = true -> to_toml_value x = Ok y).
Proof.
  intros Hty Hd H. destruct (proj1 (tv_same_verdict t v Hty Hd) (ex_intro _ y H)) as (x & Hx).
  exists x. split; [exact Hx|]. intro Hf.
  destruct (try_from_twin t v x Hty Hx Hf) as (y' & C & T). congruence.
Qed.

Theorem table_try_from_accepts_only_serializable t v y : has_type v t -> doc_keys t = true -> tv_ser_table t v = Ok y ->
  exists x, ser_value t v = Ok x.
Proof.
  intros Hty Hd H. apply (ser_ok_iff_supported t v Hty). apply (table_tryfrom_supported t v y Hty Hd H).
Qed.
