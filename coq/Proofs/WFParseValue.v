(* Proofs/WFParseValue.v — parsed documents are well-formed, part 2: values (value.rs / array.rs / inline_table.rs).
   Every value `value` returns, despanned, is well-formed in the sense of Spec/WF.v apart from its own decor (which the
   caller sets): reprs are the tokens read, decor and trailing texts are the trivia read (CRs dropped by Display),
   inline tables built by table_from_pairs have distinct keys and non-empty dotted tables, and the nesting limits of
   Spec/WF.v are the parser's recursion checks. *)
From TV Require Import Base.Prelude Base.Winnow Gen.Consts Spec.Abnf Spec.Lex Spec.WF.
From TV Require Import Model.Strings Model.Datetime Model.Numbers Model.Tree Model.Parse.
From TV Require Import Proofs.NoPanicBase Proofs.NoPanicLex Proofs.NoPanicValue Proofs.NumbersRT_Value.
From TV Require Import Proofs.LexEquivBase Proofs.LexEquivTrivia Proofs.LexEquivInt Proofs.LexEquivFloat
                       Proofs.LexEquivString Proofs.LexEquivDatetime
                       Proofs.GrammarSep Proofs.GrammarValueTok Proofs.GrammarValueSound
                       Proofs.TilingDefs Proofs.PrintBackBase Proofs.PrintBackEnc.
From TV Require Proofs.SpansExact.
From TV Require Import Proofs.WFPrintValue Proofs.WFParseBase.
From TV Require Import Proofs.ModelFacts.
From TV Require Import Proofs.KvFacts.
Require Import Lia NArith.

Lemma isrc_ext s C i i' : isrc s i -> ext C i i' -> isrc s i'.
Proof.
  intros (p & Es & Ep) (t & R & P & _). exists (p ++ t). split; [rewrite Es, R, app_assoc; reflexivity|]. rewrite P, Ep, app_length. lia.
Qed.
(* a value apart from its own decor *)
Definition body_ok (v : value) : Prop :=
  forall c p q, raw_ok (pre_slot c) p -> raw_ok (suf_slot c) q -> value_wf c (value_decorate v p q).
(* written as a value: a scalar, an array, or a braces-delimited inline table *)
Definition written (v : value) : Prop := match v with VInline _ _ im dt _ _ => im = false /\ dt = false | _ => True end.

Definition nonscalar (v : value) : Prop := match v with VScalar _ _ _ => False | _ => True end.

Lemma vdecor_new c p q : raw_ok (pre_slot c) p -> raw_ok (suf_slot c) q -> vdecor_ok c (decor_new p q).
Proof. intros Hp Hq. destruct c; cbn [vdecor_ok pre_slot suf_slot] in *; split; assumption. Qed.
Lemma body_ok_scalar x r d : repr_ok x r -> scalar_lim x -> body_ok (VScalar x r d).
Proof. intros H1 H2 c p q Hp Hq. cbn [value_decorate value_wf]. auto using vdecor_new. Qed.
Lemma body_ok_array vals tr cm d sp :
  raw_ok SWscn tr -> all_P (fun it => match it with IValue e => value_wf CArr e | _ => False end) vals -> body_ok (VArray vals tr cm d sp).
Proof. intros H1 H2 c p q Hp Hq. cbn [value_decorate value_wf]. auto using vdecor_new. Qed.
Lemma body_ok_inline items pre im dt d sp :
  raw_ok SWs pre -> NoDup (kkeys items) -> all_P (fun kv => key_wf false (fst kv) /\ pair_wf false (snd kv)) items ->
  body_ok (VInline items pre im dt d sp).
Proof. intros H1 H2 H3 c p q Hp Hq. cbn [value_decorate value_wf]. auto using vdecor_new. Qed.
Lemma value_lim_decorate d v p q : value_lim d (value_decorate v p q) <-> value_lim d v.
Proof. destruct v; cbn [value_decorate value_lim]; tauto. Qed.
Lemma value_depth_decorate v p q : value_depth (value_decorate v p q) = value_depth v.
Proof. exact (ModelFacts.value_depth_decorate v p q). Qed.
Lemma written_decorate v p q : written (value_decorate v p q) <-> written v.
Proof. destruct v; cbn; tauto. Qed.
Lemma written_t s v : written (tvalue s v) <-> written v.
Proof. destruct v; cbn [written]; try tauto. rewrite tvalue_inline. cbn. tauto. Qed.

(* an entry of an inline table under construction: a written value, or a table made of dotted keys (implicit and
   dotted, default decor and preamble) of such entries *)
Fixpoint entry_ok (it : item) {struct it} : Prop :=
  match it with
  | IValue v =>
    match v with
    | VInline sub pre im dt d _ =>
      if im then dt = true /\ all_P (fun kv => entry_ok (snd kv)) sub
      else dt = false
    | _ => True
    end
  | _ => False
  end.

Section PV.
  Variable s : bytes.
  Local Notation kgood := (kgood s).

  Definition vgood_at (p : parser value) : Prop :=
    forall i v i', isrc s i -> p i = Ok v i' ->
      isrc s i' /\ body_ok (tvalue s v) /\ value_lim (depth i) (tvalue s v) /\ written v.

  Lemma decorated_ok c v i1 w1 j1 i2 w2 j2 :
    body_ok (tvalue s v) -> isrc s i1 -> splits i1 w1 j1 -> isrc s i2 -> splits i2 w2 j2 ->
    slot_ok (pre_slot c) (ncr w1) -> slot_ok (suf_slot c) (ncr w2) ->
    value_wf c (tvalue s (value_decorate v (raw_with_span (pos i1, pos j1)) (raw_with_span (pos i2, pos j2)))).
  Proof.
    intros Hb Hi1 S1 Hi2 S2 H1 H2. rewrite tvalue_decorate. apply Hb; [apply (span_raw_ok s _ i1 w1 j1 Hi1 S1 H1)|apply (span_raw_ok s _ i2 w2 j2 Hi2 S2 H2)].
  Qed.

  (* a separated list: every element is good at the depth the list is read at *)
  Lemma separated0_good {A} (p : parser A) b (G : nat -> A -> Prop) :
    mono p -> (forall i x i', isrc s i -> p i = Ok x i' -> isrc s i' /\ G (depth i) x) ->
    forall i l i', isrc s i -> separated0 p (byte_ b) i = Ok l i' -> isrc s i' /\ Forall (G (depth i)) l.
  Proof.
    intros Hm Hp.
    assert (Hseps : forall i1 l i2, isrc s i1 -> seps p (byte_ b) i1 l i2 -> isrc s i2 /\ Forall (G (depth i1)) l).
    { intros i1 l i2 Hi R. induction R as [i F|i x j E Hlt F|i x j a j2 l i3 E Hlt E2 Hle R IH]; [auto|auto|].
      apply byte_inv in E as [_ S1]. destruct (isrc_splits s i _ j Hi S1) as [Hj _].
      destruct (Hp j a j2 Hj E2) as [Hj2 Ha]. destruct (IH Hj2) as [Hi3 Hl].
      rewrite (ext_depth _ _ _ (Hm _ _ _ E2)) in Hl. rewrite (splits_depth _ _ _ S1) in Ha, Hl. auto. }
    intros i l i' Hi H.
    apply (separated0_inv _ _ _ _ _ (mono_shrinking _ Hm) (byte_shrinking _)) in H as [(-> & -> & _) | (a & i1 & l' & -> & E & R)]; [auto|].
    destruct (Hp i a i1 Hi E) as [Hi1 Ha]. destruct (Hseps i1 l' i' Hi1 R) as [Hi' Hl]. rewrite (ext_depth _ _ _ (Hm _ _ _ E)) in Hl. auto.
  Qed.

  (* ---- table_from_pairs -------------------------------------------------------------------------------------------- *)
  Lemma titem_value v : titem s (IValue v) = IValue (tvalue s v).
  Proof. reflexivity. Qed.

  (* the entries of an inline table (or of a table made of dotted keys inside one) whose keys stand at the end of key
     paths of length n, d arrays / inline tables being open around them *)
  Definition entry_good (d n : nat) (kv : key * item) : Prop :=
    kgood (fst kv) /\ pair_wf false (titem s (snd kv)) /\ pair_lim d n (titem s (snd kv)) /\ entry_ok (snd kv).
  Definition entries_good (d n : nat) (m : kvs) : Prop := NoDup (kkeys m) /\ all_P (entry_good d n) m.

  Lemma dotted_entry d n k sub pre dec sp :
    kgood k -> sub <> [] -> entries_good d (S n) sub -> entry_good d n (k, IValue (VInline sub pre true true dec sp)).
  Proof.
    intros Hk Hne [Hnd Hall]. unfold entry_good. cbn [fst snd]. split; [exact Hk|]. rewrite titem_value, tvalue_inline.
    cbn [pair_wf pair_lim entry_ok]. split; [|split; [|split; [reflexivity|]]].
    - split; [destruct sub; [congruence|discriminate]|]. split; [rewrite kkeys_tkv; exact Hnd|]. apply all_P_map.
      eapply all_P_impl; [|exact Hall]. intros kv (H1 & H2 & _). split; assumption.
    - apply all_P_map. eapply all_P_impl; [|exact Hall]. intros kv (_ & _ & H3 & _). exact H3.
    - eapply all_P_impl; [|exact Hall]. intros kv (_ & _ & _ & H4). exact H4.
  Qed.
  Lemma dotted_entry_inv d n k sub pre dt dec sp :
    entry_good d n (k, IValue (VInline sub pre true dt dec sp)) -> dt = true /\ kgood k /\ entries_good d (S n) sub.
  Proof.
    unfold entry_good. cbn [fst snd]. rewrite titem_value, tvalue_inline. intros (Hk & Hw & Hl & He). cbn [entry_ok] in He. destruct He as [-> He].
    cbn [pair_wf pair_lim] in Hw, Hl. destruct Hw as (_ & Hnd & Hw). split; [reflexivity|]. split; [exact Hk|].
    split; [rewrite kkeys_tkv in Hnd; exact Hnd|].
    clear -Hw Hl He. induction sub as [|kv sub IH]; [exact I|]. cbn [map all_P] in *. destruct Hw as [[H1 H2] Hw], Hl as [H3 Hl], He as [H4 He].
    split; [|apply IH; assumption]. unfold entry_good. split; [exact H1|split; [exact H2|split; [exact H3|exact H4]]].
  Qed.

  Lemma inline_insert_good d : forall path m dh pe k v m' n,
    inline_insert m dh path pe k v = COk m' ->
    entries_good d n m -> Forall kgood path -> kgood k ->
    pair_wf false (titem s v) -> pair_lim d (n + length path) (titem s v) -> entry_ok v ->
    entries_good d n m' /\ m' <> [].
  Proof.
    induction path as [|pk ptl IH]; intros m dh pe k v m' n H [Hnd Hall] Hp Hk Hw Hl He; cbn [inline_insert] in H.
    - destruct (Bool.eqb dh pe); [discriminate|]. destruct (kv_get m (k_key k)) eqn:G; [discriminate|]. injection H as <-.
      split; [|unfold kv_push; destruct m; discriminate]. split; [apply NoDup_kkeys_push; assumption|].
      apply all_P_push; [exact Hall|]. cbn [length] in Hl. rewrite Nat.add_0_r in Hl. unfold entry_good. cbn [fst snd]. auto.
    - inversion Hp as [|? ? Hpk Hptl]; subst.
      assert (Hl' : pair_lim d (S n + length ptl) (titem s v)) by (cbn [length] in Hl; replace (S n + length ptl) with (n + S (length ptl)) by lia; exact Hl).
      destruct (kv_get m (k_key pk)) as [[k0 it0]|] eqn:G.
      + destruct it0 as [|v0| |]; try discriminate. destruct v0 as [x r d0|vals tr c d0 sp0|sub pre imp dt dec sp]; try discriminate.
        destruct imp; [|discriminate]. cbn [negb] in H.
        destruct (inline_insert sub dt ptl pe k v) as [sub'| |] eqn:E; try discriminate. injection H as <-.
        pose proof (all_P_get _ _ _ _ _ Hall G) as Hent. destruct (dotted_entry_inv d n k0 sub pre dt dec sp Hent) as (-> & Hk0 & Hsub).
        destruct (IH sub true pe k v sub' (S n) E Hsub Hptl Hk Hw Hl' He) as [Hsub' Hne'].
        split; [|destruct m; [discriminate|cbn [kv_set]; destruct p as [kk vv]; destruct (bytes_eqb (k_key kk) (k_key pk)); discriminate]].
        split; [rewrite kkeys_set; exact Hnd|]. apply (all_P_set _ m (k_key pk) k0 _ _ Hall G). apply dotted_entry; assumption.
      + destruct (inline_insert [] true ptl pe k v) as [sub'| |] eqn:E; try discriminate. injection H as <-.
        destruct (IH [] true pe k v sub' (S n) E (conj (NoDup_nil _) I) Hptl Hk Hw Hl' He) as [Hsub' Hne'].
        split; [|unfold kv_push; destruct m; discriminate]. split; [apply NoDup_kkeys_push; assumption|].
        apply all_P_push; [exact Hall|]. apply dotted_entry; assumption.
  Qed.

  (* a pair as inline_keyval returns it *)
  Definition pair_good (d : nat) (x : list key * (key * item)) : Prop :=
    Forall kgood (fst x) /\ kgood (fst (snd x))
    /\ exists v, snd (snd x) = IValue v /\ value_wf CInl (tvalue s v) /\ value_lim d (tvalue s v) /\ written v.

  Lemma written_plain_pair v : written v -> forall line, pair_wf line (IValue v) = value_wf (if line then CLine else CInl) v.
  Proof. destruct v as [x r d|vals tr c d sp|sub pre im dt d sp]; try reflexivity. intros [_ ->] line. reflexivity. Qed.
  Lemma written_pair_lim v d n : written v -> pair_lim d n (IValue v) = (n + value_depth v < LIMIT /\ value_lim d v).
  Proof. destruct v as [x r d0|vals tr c d0 sp|sub pre im dt d0 sp]; try reflexivity. intros [_ ->]. reflexivity. Qed.
  Lemma written_entry v : written v -> entry_ok (IValue v).
  Proof. destruct v as [x r d0|vals tr c d0 sp|sub pre im dt d0 sp]; cbn; auto. intros [-> ->]. reflexivity. Qed.

  Lemma loop_d_good d : forall pairs m m',
    table_from_pairs_loop_d m pairs = COk m' -> entries_good d 1 m -> Forall (pair_good d) pairs -> entries_good d 1 m'.
  Proof.
    induction pairs as [|[path [k v]] pairs IH]; intros m m' H Hm Hp; cbn [table_from_pairs_loop_d] in H; [injection H as <-; exact Hm|].
    inversion Hp as [|? ? H1 H2]; subst. destruct H1 as (Hpath & Hk & v0 & Ev & Hw & Hl & Hwr). cbn [fst snd] in *. subst v.
    unfold check_depth in H. destruct (Nat.leb LIMIT (length path + 1 + item_depth (IValue v0))) eqn:Ec; [discriminate|]. apply Nat.leb_gt in Ec.
    destruct (inline_insert m false path _ k (IValue v0)) as [m1| |] eqn:E; try discriminate.
    assert (Hwr' : written (tvalue s v0)) by (apply written_t, Hwr).
    destruct (inline_insert_good d path m false _ k (IValue v0) m1 1 E Hm Hpath Hk) as [Hm1 _].
    - rewrite titem_value, (written_plain_pair _ Hwr'). exact Hw.
    - rewrite titem_value, (written_pair_lim _ _ _ Hwr'). cbn [item_depth] in Ec. rewrite value_depth_t. split; [lia|exact Hl].
    - apply written_entry, Hwr.
    - apply (IH m1 m' H Hm1 H2).
  Qed.

  (* the span bookkeeping leaves the despanned entries alone *)
  Lemma map_tkv_set m k k0 it0 it : kv_get m k = Some (k0, it0) -> titem s it = titem s it0 -> map (tkv s) (kv_set m k it) = map (tkv s) m.
  Proof. intros G Ht. apply (kv_set_map (tkv s) _ _ _ _ _ G). unfold tkv. cbn [fst snd]. rewrite Ht. reflexivity. Qed.
  Lemma tkv_set_spans : forall path m e, map (tkv s) (inline_set_spans m path e) = map (tkv s) m.
  Proof.
    induction path as [|k ptl IH]; intros m e; [reflexivity|]. cbn [inline_set_spans].
    destruct (kv_get m (k_key k)) as [[k0 it0]|] eqn:G; [|reflexivity]. destruct it0 as [|v0| |]; try reflexivity.
    destruct v0 as [x r d0|vals tr c d0 sp0|sub pre imp dt dec sp]; try reflexivity.
    apply (map_tkv_set m (k_key k) k0 _ _ G). rewrite !titem_value, !tvalue_inline, IH. reflexivity.
  Qed.
  Lemma tkv_spans_pass : forall pairs m, map (tkv s) (inline_spans_pass m pairs) = map (tkv s) m.
  Proof.
    unfold inline_spans_pass. induction pairs as [|[path [k v]] pairs IH]; intro m; [reflexivity|]. cbn [fold_left]. rewrite IH. apply tkv_set_spans.
  Qed.

  Lemma table_from_pairs_good d0 pairs pre v :
    table_from_pairs pairs pre = TmOk v -> Forall (pair_good (S d0)) pairs -> raw_ok SWs (traw s pre) -> S d0 < LIMIT ->
    body_ok (tvalue s v) /\ value_lim d0 (tvalue s v) /\ written v /\ nonscalar v.
  Proof.
    unfold table_from_pairs. intros H Hp Hpre Hd. destruct (table_from_pairs_loop_d [] pairs) as [m| |] eqn:E; try discriminate. injection H as <-.
    destruct (loop_d_good (S d0) pairs [] m E (conj (NoDup_nil _) I) Hp) as [Hnd Hall].
    rewrite tvalue_inline, tkv_spans_pass. split; [|split; [|split; [split; reflexivity|exact I]]].
    - apply body_ok_inline; [exact Hpre|rewrite kkeys_tkv; exact Hnd|]. apply all_P_map. eapply all_P_impl; [|exact Hall].
      intros kv (H1 & H2 & _). split; assumption.
    - cbn [value_lim]. split; [exact Hd|]. apply all_P_map. eapply all_P_impl; [|exact Hall]. intros kv (_ & _ & H3 & _). exact H3.
  Qed.

  Section Knot.
    Variable vr : parser value.
    Hypothesis Hvr : vgood_at vr.
    Hypothesis Hmono : mono vr.

    (* ---- arrays --------------------------------------------------------------------------------------------------- *)
    Definition elem_good (d : nat) (it : item) : Prop :=
      exists v, it = IValue v /\ value_wf CArr (tvalue s v) /\ value_lim d (tvalue s v).

    Lemma array_value_good i it i1 : isrc s i -> array_value vr i = Ok it i1 -> isrc s i1 /\ elem_good (depth i) it.
    Proof.
      unfold array_value. intros Hi H.
      apply bind_inv in H as (pre & j1 & H1 & H). pose proof H1 as H1'. apply span_inv in H1' as (u1 & _ & Epre).
      apply span_wscn_inv in H1 as (w1 & Hw1 & S1). destruct (isrc_splits s i w1 j1 Hi S1) as [Hj1 _].
      apply bind_inv in H as (v & j2 & H2 & H). destruct (Hvr j1 v j2 Hj1 H2) as (Hj2 & Hb & Hl & _).
      apply bind_inv in H as (suf & j3 & H3 & H). pose proof H3 as H3'. apply span_inv in H3' as (u3 & _ & Esuf).
      apply span_wscn_inv in H3 as (w2 & Hw2 & S3). destruct (isrc_splits s j2 w2 j3 Hj2 S3) as [Hj3 _].
      apply ret_inv in H as [-> ->]. split; [exact Hj3|]. eexists. split; [reflexivity|]. subst pre suf. split.
      - apply (decorated_ok CArr v i w1 j1 j2 w2 j3 Hb Hi S1 Hj2 S3); apply wscn_ncr; assumption.
      - rewrite tvalue_decorate. apply value_lim_decorate. rewrite <- (splits_depth _ _ _ S1). exact Hl.
    Qed.

    Lemma array_values_good i v i' : isrc s i -> array_values vr i = Ok v i' ->
      isrc s i' /\ exists vals tr c, v = VArray vals tr c decor_default None /\ raw_ok SWscn (traw s tr) /\ Forall (elem_good (depth i)) vals.
    Proof.
      unfold array_values. intros Hi H. apply bind_inv in H as (c & j & H1 & H). apply peek_inv in H1 as [-> _].
      destruct c as [x|].
      - apply ret_inv in H as [-> ->]. split; [exact Hi|]. exists [], REmpty, false. split; [reflexivity|]. split; [apply empty_raw_ok|constructor].
      - apply bind_inv in H as (vals & j1 & H1 & H).
        apply bind_inv in H as (comma & j2 & H2 & H). apply bind_inv in H as (tr & j3 & H3 & H).
        pose proof H3 as H3'. apply span_inv in H3' as (u3 & _ & Etr).
        apply span_wscn_inv in H3 as (w & Hw & S3). apply ret_inv in H as [-> ->].
        destruct (separated0_good _ _ elem_good (array_value_mono vr Hmono) array_value_good i vals j1 Hi H1) as [Hj1 Hvals].
        assert (Hj2 : isrc s j2).
        { destruct vals; [apply ret_inv in H2 as [_ ->]; exact Hj1|]. apply pmap_inv in H2 as (o & H2 & _).
          apply opt_inv in H2 as [(x & _ & H2) | (_ & -> & _)]; [|exact Hj1]. apply byte_inv in H2 as [_ S]. apply (isrc_splits s j1 _ j2 Hj1 S). }
        destruct (isrc_splits s j2 w j3 Hj2 S3) as [Hj3 _]. split; [exact Hj3|].
        exists vals, (raw_with_span tr), comma. split; [reflexivity|]. split; [|exact Hvals].
        subst tr. apply (span_raw_ok s SWscn j2 w j3 Hj2 S3). apply wscn_ncr, Hw.
    Qed.

    (* ---- inline tables ------------------------------------------------------------------------------------------- *)
    Lemma inline_keyval_good i x i1 : isrc s i -> inline_keyval vr i = Ok x i1 -> isrc s i1 /\ pair_good (depth i) x.
    Proof.
      rewrite inline_keyval_eq. intros Hi H. apply bind_inv in H as (kp & j1 & H1 & H).
      destruct (key_good s i kp j1 Hi H1) as (Hj1 & Hkp & _ & _). pose proof (ext_depth _ _ _ (key_mono _ _ _ H1)) as D1.
      apply bind_inv in H as ([[pre v] suf] & j2 & H2 & H). unfold inline_kv_rhs in H2.
      apply cut_err_inv in H2. apply bind_inv in H2 as (y & k1 & E1 & H2). apply context_inv, byte_inv in E1 as [_ Se].
      destruct (isrc_splits s j1 _ k1 Hj1 Se) as [Hk1 _].
      apply bind_inv in H2 as (pre' & k2 & E2 & H2). pose proof E2 as E2'. apply span_inv in E2' as (u2 & _ & Epre).
      apply span_ws_inv in E2 as (w2 & Hw2 & S2 & _). destruct (isrc_splits s k1 w2 k2 Hk1 S2) as [Hk2 _].
      apply bind_inv in H2 as (v' & k3 & E3 & H2). destruct (Hvr k2 v' k3 Hk2 E3) as (Hk3 & Hb & Hl & Hwr).
      apply bind_inv in H2 as (suf' & k4 & E4 & H2). pose proof E4 as E4'. apply span_inv in E4' as (u4 & _ & Esuf).
      apply span_ws_inv in E4 as (w3 & Hw3 & S4 & _). destruct (isrc_splits s k3 w3 k4 Hk3 S4) as [Hk4 _].
      apply ret_inv in H2 as [E ->]. injection E as -> -> ->.
      destruct (pop_key kp) as [[path k]|] eqn:Ep; [|discriminate]. apply ret_inv in H as [-> ->].
      destruct (pop_key_good s kp path k Hkp Ep) as (Hpath & Hk & _).
      split; [exact Hk4|]. unfold pair_good. cbn [fst snd]. split; [exact Hpath|]. split; [exact Hk|].
      eexists. split; [reflexivity|]. subst pre' suf'. split; [|split].
      - apply (decorated_ok CInl v' k1 w2 k2 k3 w3 k4 Hb Hk1 S2 Hk3 S4); cbn [pre_slot suf_slot slot_ok]; [rewrite (ncr_ws w2 Hw2); exact Hw2|rewrite (ncr_ws w3 Hw3); exact Hw3].
      - rewrite tvalue_decorate. apply value_lim_decorate. rewrite (splits_depth _ _ _ S2), (splits_depth _ _ _ Se), D1 in Hl. exact Hl.
      - apply written_decorate, Hwr.
    Qed.

    (* inside check_recursion: the cursor is one level deeper than the value *)
    Lemma inline_table_good i v i' d0 : isrc s i -> depth i = S d0 -> S d0 < LIMIT -> inline_table vr i = Ok v i' ->
      isrc s i' /\ body_ok (tvalue s v) /\ value_lim d0 (tvalue s v) /\ written v /\ nonscalar v.
    Proof.
      rewrite inline_table_eq. intros Hi Hd Hlim H. apply bind_inv in H as (x & j1 & H1 & H). apply byte_inv in H1 as [_ S1].
      destruct (isrc_splits s i _ j1 Hi S1) as [Hj1 _].
      apply bind_inv in H as (tv & j2 & H2 & H). apply cut_err_inv in H2. unfold inline_body in H2.
      apply try_map_inv in H2 as ([pairs pre] & H2 & Htm).
      apply bind_inv in H as (y & j3 & H3 & H). apply context_inv, cut_err_inv, byte_inv in H3 as [_ S3].
      apply ret_inv in H as [-> ->].
      unfold inline_kvs in H2. apply bind_inv in H2 as (kv & k1 & E1 & H2).
      apply bind_inv in H2 as (sp & k2 & E2 & H2). pose proof E2 as E2'. apply span_inv in E2' as (u2 & _ & Esp).
      apply span_ws_inv in E2 as (w & Hw & Sw & _). apply ret_inv in H2 as [E ->]. injection E as -> ->.
      destruct (separated0_good _ _ pair_good (inline_keyval_mono vr Hmono) inline_keyval_good j1 kv k1 Hj1 E1) as [Hk1 Hkv].
      rewrite (splits_depth _ _ _ S1), Hd in Hkv. destruct (isrc_splits s k1 w k2 Hk1 Sw) as [Hk2 _]. destruct (isrc_splits s k2 _ j3 Hk2 S3) as [Hj3 _].
      split; [exact Hj3|]. subst sp. apply (table_from_pairs_good d0 kv _ tv Htm Hkv); [|exact Hlim].
      apply (span_ws_ok s SWs k1 w k2 Hk1 Sw Hw).
    Qed.

    Lemma array_good i v i' d0 : isrc s i -> depth i = S d0 -> S d0 < LIMIT -> array vr i = Ok v i' ->
      isrc s i' /\ body_ok (tvalue s v) /\ value_lim d0 (tvalue s v) /\ written v /\ nonscalar v.
    Proof.
      unfold array. intros Hi Hd Hlim H. apply bind_inv in H as (x & j1 & H1 & H). apply byte_inv in H1 as [_ S1].
      destruct (isrc_splits s i _ j1 Hi S1) as [Hj1 _].
      apply bind_inv in H as (a & j2 & H2 & H). apply cut_err_inv in H2.
      destruct (array_values_good j1 a j2 Hj1 H2) as (Hj2 & vals & tr & c & -> & Htr & Hvals).
      apply bind_inv in H as (y & j3 & H3 & H). apply context_inv, cut_err_inv, byte_inv in H3 as [_ S3].
      destruct (isrc_splits s j2 _ j3 Hj2 S3) as [Hj3 _]. apply ret_inv in H as [-> ->].
      split; [exact Hj3|]. rewrite (splits_depth _ _ _ S1), Hd in Hvals. rewrite tvalue_array. split; [|split; [|split; exact I]].
      - apply body_ok_array; [exact Htr|]. apply all_P_map. apply all_P_Forall. eapply Forall_impl; [|exact Hvals].
        intros it (e & -> & He & _). exact He.
      - cbn [value_lim]. split; [exact Hlim|]. apply all_P_map. apply all_P_Forall. eapply Forall_impl; [|exact Hvals].
        intros it (e & -> & _ & He). exact He.
    Qed.

    (* ---- scalars and the dispatch ----------------------------------------------------------------------------------- *)
    (* before apply_raw: a scalar has no repr yet, what is known is the token it was read from *)
    Definition vbody_good (d : nat) (v : value) (t : bytes) : Prop :=
      match v with
      | VScalar x _ _ => scalar_tok t x /\ scalar_lim x
      | _ => body_ok (tvalue s v) /\ value_lim d (tvalue s v) /\ written v
      end.
    Definition body_at (p : parser value) : Prop :=
      forall i v i', isrc s i -> p i = Ok v i' -> exists t, splits i t i' /\ vbody_good (depth i) v t.

    Lemma scalar_arm {A} (p : parser A) (mk : A -> scalar) :
      (forall i x i', p i = Ok x i' -> exists t, splits i t i' /\ scalar_tok t (mk x) /\ scalar_lim (mk x)) ->
      body_at (pmap (fun x => scalar_value (mk x)) p).
    Proof. intros Hp i v i' Hi H. apply pmap_inv in H as (x & H & ->). apply Hp in H as (t & S & Ht). exists t. split; [exact S|exact Ht]. Qed.

    Lemma string_arm_body : body_at (pmap (fun x => scalar_value (SString x)) string_).
    Proof. apply scalar_arm. intros i x i' H. apply string_sound in H as (t & Ht & S). exists t. cbn. auto. Qed.
    Lemma integer_arm_body : body_at (pmap (fun z => scalar_value (SInt z)) integer).
    Proof. apply scalar_arm. intros i x i' H. apply integer_sound in H as (t & Ht & S & R). exists t. cbn. auto. Qed.
    Lemma float_arm_body : body_at (pmap (fun f => scalar_value (SFloat f)) float).
    Proof.
      apply scalar_arm. intros i x i' H. apply float_sound in H as (t & Ht & F & S). exists t. cbn [scalar_tok scalar_lim].
      split; [exact S|]. split; [exact Ht|]. destruct x as [| |neg m e]; try exact I. exact F.
    Qed.
    Lemma date_time_arm_body : body_at (pmap (fun d => scalar_value (SDatetime d)) date_time).
    Proof. apply scalar_arm. intros i x i' H. apply date_time_sound in H as (t & Ht & S). exists t. cbn. auto. Qed.
    Lemma true_arm_body : body_at (pmap (fun v => scalar_value (SBool v)) true_).
    Proof. apply scalar_arm. intros i x i' H. apply true_sound in H as [-> S]. exists t_true. cbn. split; [exact S|]. split; [left; auto|exact I]. Qed.
    Lemma false_arm_body : body_at (pmap (fun v => scalar_value (SBool v)) false_).
    Proof. apply scalar_arm. intros i x i' H. apply false_sound in H as [-> S]. exists t_false. cbn. split; [exact S|]. split; [right; auto|exact I]. Qed.
    Lemma inf_arm_body : body_at (pmap (fun f => scalar_value (SFloat f)) inf).
    Proof.
      apply scalar_arm. intros i x i' H. unfold inf in H. apply pvalue_inv in H as (-> & y & H). apply lit_inv in H as [_ S].
      exists t_inf. cbn. split; [exact S|]. split; [apply (float_inf [] false); left; auto|exact I].
    Qed.
    Lemma nan_arm_body : body_at (pmap (fun f => scalar_value (SFloat f)) nan).
    Proof.
      apply scalar_arm. intros i x i' H. unfold nan in H. apply pvalue_inv in H as (-> & y & H). apply lit_inv in H as [_ S].
      exists t_nan. cbn. split; [exact S|]. split; [apply (float_nan [] false); left; auto|exact I].
    Qed.

    Lemma body_context p : body_at p -> body_at (context p).
    Proof. intros Hp i v i' Hi H. apply context_inv in H. apply (Hp i v i' Hi H). Qed.
    Lemma body_alt p q : body_at p -> body_at q -> body_at (p <|> q).
    Proof. intros Hp Hq i v i' Hi H. apply alt_inv in H as [H | [_ H]]; [apply (Hp i v i' Hi H)|apply (Hq i v i' Hi H)]. Qed.
    Lemma body_fail : body_at (context fail).
    Proof. intros i v i' _ H. apply context_inv in H. discriminate. Qed.

    Lemma nested_arm_body (p : parser value) : mono p ->
      (forall i v i' d0, isrc s i -> depth i = S d0 -> S d0 < LIMIT -> p i = Ok v i' ->
                         isrc s i' /\ body_ok (tvalue s v) /\ value_lim d0 (tvalue s v) /\ written v /\ nonscalar v) ->
      body_at (check_recursion p).
    Proof.
      intros Hm Hp i v i' Hi H. pose proof H as H0. apply check_recursion_splits in H0 as (Hlim & i2 & H2 & Hs).
      destruct (Hm _ _ _ H2) as (t & R & P & D & _).
      assert (S2 : splits (set_depth (S (depth i)) i) t i2).
      { split; [exact R|]. destruct i2 as [r2 p2 d2]. unfold adv, advance, set_depth in *. cbn [rest pos depth] in *.
        f_equal; [rewrite R; symmetry; apply skipn_app_len|lia|lia]. }
      exists t. split; [apply Hs, S2|]. destruct (Hp _ v i2 (depth i) (isrc_set_depth s i _ Hi) eq_refl Hlim H2) as (_ & Hb & Hl & Hw & Hns).
      destruct v; [contradiction| |]; cbn [vbody_good]; auto.
    Qed.
    Lemma array_arm_body : body_at (check_recursion (array vr)).
    Proof. apply nested_arm_body; [apply (array_mono vr Hmono)|intros i v i' d0; apply array_good]. Qed.
    Lemma inline_arm_body : body_at (check_recursion (inline_table vr)).
    Proof. apply nested_arm_body; [apply (inline_table_mono vr Hmono)|intros i v i' d0; apply inline_table_good]. Qed.

    Lemma value_arm_body b : body_at (value_arm vr b).
    Proof.
      unfold value_arm.
      repeat match goal with |- body_at (if ?c then _ else _) => destruct c end;
        first [ apply string_arm_body | apply array_arm_body | apply inline_arm_body
              | apply body_fail
              | apply body_context; first [apply integer_arm_body | apply float_arm_body | apply true_arm_body
                                          | apply false_arm_body | apply inf_arm_body | apply nan_arm_body]
              | idtac ].
      unfold number_arm. apply body_alt; [apply date_time_arm_body|]. apply body_alt; [apply float_arm_body|apply integer_arm_body].
    Qed.

    Lemma value_body_body : body_at (value_body vr).
    Proof.
      intros i v i' Hi H. pose proof H as H0. unfold value_body in H0. apply bind_inv in H0 as (b & j & H1 & _).
      apply context_inv, peek_inv in H1 as [_ (j' & H1)]. apply any_inv in H1 as [R _]. cbn [app] in R.
      rewrite (value_body_arm vr i b _ R) in H. apply (value_arm_body b i v i' Hi H).
    Qed.

    Lemma value_step_good : vgood_at (value_step vr).
    Proof.
      intros i v i' Hi H. unfold value_step in H. apply pmap_inv in H as ([v0 sp] & H & ->).
      apply with_span_inv in H as (a0 & H & E). injection E as <- ->.
      destruct (value_body_body i v0 i' Hi H) as (t & S & Hb). destruct (isrc_splits s i t i' Hi S) as [Hi' _].
      split; [exact Hi'|].
      assert (Hne : t <> []).
      { pose proof (SpansExact.value_body_progress vr Hmono _ _ _ H) as G. destruct S as [R _]. intro X. subst t. rewrite R in G. cbn in G. lia. }
      destruct v0 as [x r d|vals tr c d sp0|items pre im dt d sp0]; cbn [vbody_good] in Hb.
      - destruct Hb as [Ht Hl]. unfold apply_raw. cbn [value_decorate]. cbn [tvalue]. cbn [toraw]. rewrite (span_explicit s i t i' Hi S Hne).
        split; [apply body_ok_scalar; [exact Ht|exact Hl]|]. split; [exact I|exact I].
      - destruct Hb as (Hb & Hl & Hw). unfold apply_raw. cbn [value_decorate] in *. rewrite tvalue_array in *. split; [|split; [exact Hl|exact I]].
        intros c0 p q Hp Hq. exact (Hb c0 p q Hp Hq).
      - destruct Hb as (Hb & Hl & Hw). unfold apply_raw. cbn [value_decorate] in *. rewrite tvalue_inline in *. split; [|split; [exact Hl|exact Hw]].
        intros c0 p q Hp Hq. exact (Hb c0 p q Hp Hq).
    Qed.
  End Knot.

  Lemma value_f_good n : vgood_at (value_f n).
  Proof.
    induction n as [|n IH]; [intros i v i' _ H; discriminate|].
    change (value_f (S n)) with (value_step (value_f n)). apply value_step_good; [exact IH|apply (proj1 (value_f_all n))].
  Qed.

  (* value.rs `value` *)
  Theorem value_good i v i' : isrc s i -> value_ i = Ok v i' ->
    isrc s i' /\ body_ok (tvalue s v) /\ value_lim (depth i) (tvalue s v) /\ written v.
  Proof. apply value_f_good. Qed.
End PV.
