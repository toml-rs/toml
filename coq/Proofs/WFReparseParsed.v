(* Proofs/WFReparseParsed.v — C03, general clause, for parsed documents: with `parse_WF` (Proofs/WFParseTop.v) the only
   premises left are about the ORDER of the sections (`order_b`: the positions do not decrease along the tree walk)
   and the resulting data (`abs_doc_of` of the despanned tree is the document's data — it is when, in every table, the
   key/value lines were written before the sub-tables, and no super-table received a dotted key, class U1). *)
From TV Require Import Base.Prelude Spec.WF.
From TV Require Import Model.Tree Model.Document Model.Encode.
From TV Require Import Proofs.GrammarBase Proofs.PrintBackBase.
From TV Require Import Proofs.WFBool Proofs.WFBoolSound Proofs.WFTree Proofs.WFReparse Proofs.WFParseTop.

Theorem parsed_WF s d r t :
  parse_document s = POk d -> tbl_despan s (doc_root d) = Some r -> raw_despan s (doc_trailing d) = Some t ->
  order_ok r -> WFdoc r t.
Proof.
  intros Hp Er Et Ho. destruct (parse_WF s d r t Hp Er Et) as [(H1 & H2 & H3) H4]. split; [|exact H4]. split; [exact H1|]. split; [exact H2|]. split; [exact H3|exact Ho].
Qed.

Definition order_data_check (s : bytes) (d : doc) : bool :=
  match tbl_despan s (doc_root d) with
  | Some r => order_b r && stree_eqb (abs_doc_of r) (abs_doc d)
  | None => false
  end.

Theorem reparse_ordered s d o :
  parse_document s = POk d -> print_doc s d = Some o -> order_data_check s d = true ->
  exists d', parse_document o = POk d' /\ abs_doc d' = abs_doc d.
Proof.
  intros Hp Ho Hc. unfold print_doc in Ho. unfold order_data_check in Hc.
  destruct (tbl_despan s (doc_root d)) as [r|] eqn:Er; [|discriminate]. destruct (raw_despan s (doc_trailing d)) as [t|] eqn:Et; [|discriminate].
  injection Ho as <-. apply andb_true_iff in Hc as [H1 H2].
  assert (Ho : order_ok r) by (apply nondecreasing_b_sound, H1).
  destruct (reparse_of_wf s d r t Hp Er Et (parsed_WF s d r t Hp Er Et Ho) (stree_eqb_eq _ _ H2)) as (_ & d' & P & A). eauto.
Qed.
