(* Proofs/LexEquivInt.v — L1 for integers: digit runs with single underscores, dec-int,
   hex/oct/bin-int, and `integer` with its value (Horner) and i64 range check. *)
From TV Require Import Base.Prelude Base.Winnow Gen.Consts Spec.Abnf Spec.Lex.
From TV Require Import Model.Datetime Model.Numbers.
From TV Require Import Proofs.ConstsOk Proofs.LexEquivBase Proofs.LexEquivTrivia.
Require Import Lia ZifyBool ZifyN ZifyNat.

(* ---- the languages of Spec/Lex.v: small facts -------------------------------------------------- *)
Lemma star_app (L : lang) t1 v1 t2 v2 : star L t1 v1 -> star L t2 v2 -> star L (t1 ++ t2) (v1 ++ v2).
Proof.
  induction 1 as [|a va b vb Ha Hb IH]; intro H2; [exact H2|].
  rewrite <- !app_assoc. apply star_cons; [exact Ha|apply IH; exact H2].
Qed.

Lemma star_one (L : lang) t v : L t v -> star L t v.
Proof.
  intro H. rewrite <- (app_nil_r t), <- (app_nil_r v). apply star_cons; [exact H|apply star_nil].
Qed.

(* digit or underscore: what may continue a digit run *)
Definition us_or (c : byte -> bool) (b : byte) : bool := c b || byte_eqb x5f b.

Lemma stops_us_or c r : stops (us_or c) r -> stops c r /\ stops (byte_eqb x5f) r.
Proof.
  destruct r as [|b r]; [auto|]. unfold us_or. cbn [stops]. intro H. apply orb_false_iff in H. exact H.
Qed.

(* a digit class: ASCII, without the underscore *)
Definition digit_class (c : byte -> bool) : Prop :=
  forall b, c b = true -> ascii b = true /\ byte_eqb x5f b = false.

Lemma digit_class_hexdig : digit_class Abnf.hexdig.
Proof. intros b H. unfold ascii. cls. lia. Qed.
Lemma hexdig_not_sign b : Abnf.hexdig b = true -> byte_eqb b plus = false /\ byte_eqb b dash = false.
Proof. unfold plus, dash. cls. lia. Qed.
Lemma unquoted_stops_hexdig r : stops unquoted_key_char r -> stops (us_or Abnf.hexdig) r.
Proof. destruct r as [|b r]; [auto|]. cbn [stops]. unfold us_or. cls. lia. Qed.

(* a hex digit below the radix is read as its value: the three ranges of char::to_digit and of digit_of *)
Lemma radix_digit_of r b : Abnf.hexdig b = true -> (digit_of b < r)%N -> radix_digit r b = Some (digit_of b).
Proof.
  unfold radix_digit, digit_of. cls. intros H Hr.
  destruct ((48 <=? b2n b) && (b2n b <=? 57))%N eqn:D.
  { replace (b2n b - 48 <? r)%N with true by lia. reflexivity. }
  destruct ((65 <=? b2n b) && (b2n b <=? 70))%N eqn:U.
  { replace ((97 <=? b2n b) && (b2n b <=? 122))%N with false by lia.
    replace ((65 <=? b2n b) && (b2n b <=? 90))%N with true by lia.
    replace (b2n b - 55 <? r)%N with true by lia. reflexivity. }
  replace ((97 <=? b2n b) && (b2n b <=? 122))%N with true by lia.
  replace (b2n b - 87 <? r)%N with true by lia. reflexivity.
Qed.

(* c is a class of digits of radix r; what the four kinds of integer need of their digits follows from this *)
Definition radix_class (r : N) (c : byte -> bool) : Prop :=
  forall b, c b = true -> Abnf.hexdig b = true /\ (digit_of b < r)%N.

Lemma radix_class_16 : radix_class 16 Abnf.hexdig.
Proof.
  intros b H. split; [exact H|]. revert H. unfold digit_of. cls. intro H.
  destruct ((48 <=? b2n b) && (b2n b <=? 57))%N eqn:D; [lia|].
  destruct ((65 <=? b2n b) && (b2n b <=? 70))%N eqn:U; lia.
Qed.

Lemma radix_class_dec lo hi r : (48 <= lo)%N -> (hi <= 57)%N -> (hi < 48 + r)%N -> radix_class r (rng lo hi).
Proof.
  intros Hlo Hhi Hr b H. unfold digit_of. revert H. cls. intro H.
  replace ((48 <=? b2n b) && (b2n b <=? 57))%N with true by lia. lia.
Qed.

Lemma radix_class_10 : radix_class 10 Abnf.digit.
Proof. apply radix_class_dec; lia. Qed.
Lemma radix_class_8 : radix_class 8 digit0_7.
Proof. apply radix_class_dec; lia. Qed.
Lemma radix_class_2 : radix_class 2 digit0_1.
Proof. apply radix_class_dec; lia. Qed.

Section RadixClass.
  Variables (r : N) (c : byte -> bool).
  Hypothesis Hrc : radix_class r c.

  Lemma radix_class_digit_class : digit_class c.
  Proof. intros b H. apply digit_class_hexdig, (Hrc b H). Qed.

  Lemma radix_class_not_sign b : c b = true -> byte_eqb b plus = false /\ byte_eqb b dash = false.
  Proof. intro H. apply hexdig_not_sign, (Hrc b H). Qed.

  Lemma radix_class_digit b : c b = true -> radix_digit r b = Some (digit_of b).
  Proof. intro H. apply radix_digit_of; apply (Hrc b H). Qed.

  Lemma radix_class_stops s : stops unquoted_key_char s -> stops (us_or c) s.
  Proof.
    intro H. apply unquoted_stops_hexdig in H. destruct s as [|b s]; [exact I|]. cbn [stops] in *.
    unfold us_or in *. apply orb_false_iff in H as [Hh Hu]. rewrite Hu, orb_false_r.
    destruct (c b) eqn:E; [|reflexivity]. rewrite (proj1 (Hrc b E)) in Hh. discriminate.
  Qed.
End RadixClass.

Lemma digit_class_digit : digit_class Abnf.digit.
Proof. exact (radix_class_digit_class 10 _ radix_class_10). Qed.
Lemma digit_not_sign b : Abnf.digit b = true -> byte_eqb b plus = false /\ byte_eqb b dash = false.
Proof. exact (radix_class_not_sign 10 _ radix_class_10 b). Qed.
Lemma unquoted_stops_digit r : stops unquoted_key_char r -> stops (us_or Abnf.digit) r.
Proof. exact (radix_class_stops 10 _ radix_class_10 r). Qed.

Lemma digit1_9_digit b : digit1_9 b = true -> Abnf.digit b = true.
Proof. cls. lia. Qed.

Lemma remove_us_app a b : remove_us (a ++ b) = remove_us a ++ remove_us b.
Proof. apply filter_app. Qed.

Lemma us_digit_facts c t v : digit_class c -> us_digit c t v ->
  t <> [] /\ forallb ascii t = true /\ forallb c v = true /\ remove_us t = v.
Proof.
  intros Hc [(b & Hb & -> & ->) | (t1 & v1 & t2 & v2 & -> & -> & [-> ->] & (b & Hb & -> & ->))];
    destruct (Hc b Hb) as [Ha Hu]; rewrite byte_eqb_n, N.eqb_sym, <- byte_eqb_n in Hu.
  - split; [discriminate|]. unfold remove_us, underscore. cbn [forallb filter]. rewrite Ha, Hb, Hu. auto.
  - split; [discriminate|]. unfold remove_us, underscore. cbn [app forallb filter].
    change (byte_eqb x5f x5f) with true. cbn [negb]. rewrite Ha, Hb, Hu. auto.
Qed.

Lemma star_us_facts c t v : digit_class c -> star (us_digit c) t v ->
  forallb ascii t = true /\ forallb c v = true /\ remove_us t = v.
Proof.
  intros Hc. induction 1 as [|t1 v1 t2 v2 H1 H2 (IHa & IHc & IHr)]; [auto|].
  destruct (us_digit_facts c t1 v1 Hc H1) as (_ & Ha & Hv & Hr).
  rewrite !forallb_app, remove_us_app, Ha, Hv, Hr, IHa, IHc, IHr. auto.
Qed.

(* ---- one element of a digit run: d / underscore d ------------------------------------------------ *)
Definition el (d : parser byte) : parser unit :=
  pvoid d <|> (byte_ underscore ;;; pvoid (context (cut_err d))).

Section DigitRun.
  (* g: the class as the code tests it; c: the class of the grammar *)
  Variables (g c : byte -> bool).
  Hypothesis Hg : forall b, g b = c b.
  Hypothesis Hc : digit_class c.

  Lemma el_ok t v i r : us_digit c t v -> rest i = t ++ r -> el (one_of g) i = Ok tt (adv t i).
  Proof.
    intros [(b & Hb & -> & ->) | (t1 & v1 & t2 & v2 & -> & -> & [-> ->] & (b & Hb & -> & ->))] H; unfold el.
    - apply alt_ok. apply (pvoid_ok _ _ b). apply (one_of_ok g i b r H). rewrite Hg. exact Hb.
    - rewrite alt_fails_l.
      + rewrite (bind_ok _ _ _ _ _ (byte_ok underscore i ([b] ++ r) H)).
        assert (R : rest (adv [underscore] i) = b :: r) by (apply rest_adv; exact H).
        rewrite (pvoid_ok _ _ b (adv [b] (adv [underscore] i))).
        * rewrite adv_adv. reflexivity.
        * apply context_ok, cut_err_ok. apply (one_of_ok g _ b r R). rewrite Hg. exact Hb.
      + apply pvoid_fails, one_of_fails. rewrite H. cbn [app stops]. rewrite Hg.
        destruct (c x5f) eqn:E; [|reflexivity]. destruct (Hc _ E) as [_ F]. discriminate.
  Qed.

  Lemma el_inv i u i' : el (one_of g) i = Ok u i' -> exists t v, us_digit c t v /\ splits i t i'.
  Proof.
    unfold el. intro H. apply alt_inv in H as [H | [_ H]].
    - apply pvoid_inv in H as (b & H). apply one_of_inv in H as [Hb S]. rewrite Hg in Hb.
      exists [b], [b]. split; [left; exists b; auto|exact S].
    - apply bind_inv in H as (x & i1 & H1 & H). apply byte_inv in H1 as [_ S1].
      apply pvoid_inv in H as (b & H). apply context_inv, cut_err_inv in H.
      apply one_of_inv in H as [Hb S2]. rewrite Hg in Hb.
      exists ([x5f] ++ [b]), ([] ++ [b]). split; [|apply (splits_trans _ _ _ _ _ S1 S2)].
      right. exists [x5f], [], [b], [b]. repeat split. exists b; auto.
  Qed.

  Lemma el_shrinking : shrinking (el (one_of g)).
  Proof. apply splits_shrinking. intros i a i' H. apply el_inv in H as (t & _ & _ & S). eauto. Qed.

  Lemma el_fails i : stops (us_or c) (rest i) -> fails (el (one_of g)) i.
  Proof.
    intro H. apply stops_us_or in H as [H1 H2]. unfold el. apply alt_fails.
    - apply pvoid_fails, one_of_fails. destruct (rest i); [exact I|]. cbn [stops] in *. rewrite Hg. exact H1.
    - apply bind_fails, byte_fails. exact H2.
  Qed.

  Lemma el_fails_inv i : fails (el (one_of g)) i -> stops (us_or c) (rest i).
  Proof.
    intros (e & j & H). destruct (rest i) as [|b r] eqn:E; [exact I|]. cbn [stops]. unfold us_or.
    destruct (c b) eqn:Cb.
    { exfalso. rewrite (el_ok [b] [b] i r) in H; [discriminate|left; exists b; auto|exact E]. }
    destruct (byte_eqb x5f b) eqn:U; [|reflexivity]. exfalso. apply byte_eqb_eq in U. subst b.
    unfold el in H. rewrite alt_fails_l in H.
    - rewrite (bind_ok _ _ _ _ _ (byte_ok underscore i r E)) in H.
      unfold pvoid, pmap, context, cut_err in H. destruct (one_of g (adv [underscore] i)); discriminate.
    - apply pvoid_fails, one_of_fails. rewrite E. cbn [stops]. rewrite Hg. exact Cb.
  Qed.

  Lemma runs_el_sound i l i' : runs (el (one_of g)) i l i' ->
    exists t v, star (us_digit c) t v /\ splits i t i' /\ stops (us_or c) (rest i').
  Proof.
    induction 1 as [i F|i a i1 l i2 E _ _ (t2 & v2 & St & S2 & Hs)].
    - exists [], []. split; [apply star_nil|]. split; [apply splits_nil|apply el_fails_inv; exact F].
    - apply el_inv in E as (t1 & v1 & U & S1). exists (t1 ++ t2), (v1 ++ v2).
      split; [apply star_cons; assumption|]. split; [apply (splits_trans _ _ _ _ _ S1 S2)|exact Hs].
  Qed.

  Lemma runs_el_complete t v : star (us_digit c) t v -> forall i r, rest i = t ++ r -> stops (us_or c) r ->
    exists l, runs (el (one_of g)) i l (adv t i).
  Proof.
    induction 1 as [|t1 v1 t2 v2 H1 H2 IH]; intros i r H Hr.
    - exists []. rewrite adv_nil. apply runs_nil. apply el_fails. rewrite H. exact Hr.
    - rewrite <- app_assoc in H.
      destruct (IH (adv t1 i) r (rest_adv t1 _ i H) Hr) as (l & Rl). exists (tt :: l).
      apply (runs_step _ i t1 (t2 ++ r) tt l t2 H (proj1 (us_digit_facts c t1 v1 Hc H1)) (el_ok t1 v1 i _ H1 H) Rl).
  Qed.

  (* first *( d / underscore d ) *)
  Variables (f cf : byte -> bool).
  Hypothesis Hf : forall b, f b = cf b.

  Lemma digits_us_complete i b t v r :
    rest i = (b :: t) ++ r -> cf b = true -> star (us_digit c) t v -> stops (us_or c) r ->
    digits_us (one_of f) (one_of g) i = Ok tt (adv (b :: t) i).
  Proof.
    intros H Hb St Hr. unfold digits_us. fold (el (one_of g)).
    assert (Hfb : f b = true) by (rewrite Hf; exact Hb).
    rewrite (bind_ok _ _ _ _ _ (one_of_ok f i b (t ++ r) H Hfb)).
    assert (R : rest (adv [b] i) = t ++ r) by (apply rest_adv; exact H).
    destruct (runs_el_complete t v St _ r R Hr) as (l & Rl).
    rewrite (pvoid_ok _ _ _ _ (repeat0_runs _ _ _ _ Rl)). rewrite adv_adv. reflexivity.
  Qed.

  Lemma digits_us_sound i u i' : digits_us (one_of f) (one_of g) i = Ok u i' ->
    exists b t v, cf b = true /\ star (us_digit c) t v /\ splits i (b :: t) i' /\ stops (us_or c) (rest i').
  Proof.
    unfold digits_us. fold (el (one_of g)). intro H. apply bind_inv in H as (b & i1 & H1 & H).
    apply one_of_inv in H1 as [Hb S1]. rewrite Hf in Hb. apply pvoid_inv in H as (l & H).
    apply (repeat0_inv _ _ _ _ el_shrinking) in H. apply runs_el_sound in H as (t & v & St & S2 & Hs).
    exists b, t, v. split; [exact Hb|]. split; [exact St|]. split; [|exact Hs].
    apply (splits_trans _ _ _ _ _ S1 S2).
  Qed.

  Lemma digits_us_fails i : stops cf (rest i) -> fails (digits_us (one_of f) (one_of g)) i.
  Proof.
    intro H. unfold digits_us. apply bind_fails, one_of_fails.
    destruct (rest i); [exact I|]. cbn [stops] in *. rewrite Hf. exact H.
  Qed.
End DigitRun.

(* ---- values: i64::from_str_radix on digits = Horner -------------------------------------------------- *)
Lemma horner_acc radix ds acc :
  fold_left (fun a b => (a * radix + digit_of b)%N) ds acc
  = (acc * radix ^ N.of_nat (length ds) + horner radix ds)%N.
Proof.
  unfold horner. revert acc. induction ds as [|d ds IH]; intro acc.
  - cbn [fold_left length]. change (N.of_nat 0) with 0%N. rewrite N.pow_0_r. lia.
  - cbn [fold_left length]. rewrite IH. rewrite (IH (0 * radix + digit_of d)%N).
    rewrite Nat2N.inj_succ, N.pow_succ_r'. lia.
Qed.

Lemma radix_value_horner r c ds : (forall b, c b = true -> radix_digit r b = Some (digit_of b)) ->
  forallb c ds = true -> forall acc,
  radix_value r acc ds = Some (fold_left (fun a b => (a * r + digit_of b)%N) ds acc).
Proof.
  intros Hd. induction ds as [|d ds IH]; intros Hds acc; [reflexivity|].
  cbn [forallb] in Hds. apply andb_true_iff in Hds as [H1 H2].
  cbn [radix_value fold_left]. rewrite (Hd d H1). apply IH. exact H2.
Qed.

(* the first byte of a digit string is not a sign *)
Lemma digit_class_not_sign c b : digit_class c -> c b = true -> ascii b = true.
Proof. intros H Hb. apply (H b Hb). Qed.

Lemma i64_unsigned r c ds : radix_class r c -> ds <> [] -> forallb c ds = true ->
  i64_from_str_radix r ds = if in_i64 (Z.of_N (horner r ds)) then Some (Z.of_N (horner r ds)) else None.
Proof.
  intros Hrc Hne Hds. unfold i64_from_str_radix. destruct ds as [|b t]; [congruence|].
  pose proof Hds as Hds'. cbn [forallb] in Hds'. apply andb_true_iff in Hds' as [Hb _].
  destruct (radix_class_not_sign r c Hrc b Hb) as [-> ->].
  rewrite (radix_value_horner r c (b :: t) (radix_class_digit r c Hrc) Hds). reflexivity.
Qed.

Lemma i64_signed sg neg ds : sign sg neg -> ds <> [] -> forallb Abnf.digit ds = true ->
  i64_from_str_radix 10 (sg ++ ds)
  = if in_i64 (signed neg (horner 10 ds)) then Some (signed neg (horner 10 ds)) else None.
Proof.
  intros [[-> ->] | [[-> ->] | [-> ->]]] Hne Hds.
  - cbn [app signed]. apply (i64_unsigned 10 Abnf.digit ds radix_class_10 Hne Hds).
  - cbn [app signed]. unfold i64_from_str_radix. change (byte_eqb x2b plus) with true. cbv iota.
    destruct ds as [|b t]; [congruence|]. rewrite (radix_value_horner 10 Abnf.digit (b :: t) (radix_class_digit 10 _ radix_class_10) Hds). reflexivity.
  - cbn [app signed]. unfold i64_from_str_radix. change (byte_eqb x2d plus) with false.
    change (byte_eqb x2d dash) with true. cbv iota.
    destruct ds as [|b t]; [congruence|]. rewrite (radix_value_horner 10 Abnf.digit (b :: t) (radix_class_digit 10 _ radix_class_10) Hds). reflexivity.
Qed.

(* ---- dec-int = [ minus / plus ] unsigned-dec-int ----------------------------------------------------------- *)
Definition is_sign (b : byte) : bool := byte_eqb b plus || byte_eqb b dash.

Lemma sign_facts sg neg : sign sg neg -> forallb ascii sg = true /\ remove_us sg = sg.
Proof. intros [[-> ->] | [[-> ->] | [-> ->]]]; split; reflexivity. Qed.

(* a digit, then digits with single underscores: the shape under all four kinds of integer *)
Lemma cat_one_star_facts c : digit_class c -> forall u ds, cat (one c) (star (us_digit c)) u ds ->
  forallb ascii u = true /\ forallb c ds = true /\ remove_us u = ds /\ ds <> []
  /\ exists b t v, u = b :: t /\ ds = b :: v /\ c b = true /\ star (us_digit c) t v.
Proof.
  intros Hc u ds (t1 & v1 & t2 & v2 & -> & -> & (b & Hb & -> & ->) & St).
  destruct (Hc b Hb) as [Ha Hu]. rewrite byte_eqb_n, N.eqb_sym, <- byte_eqb_n in Hu.
  destruct (star_us_facts c t2 v2 Hc St) as (A1 & A2 & A3).
  cbn [app forallb]. rewrite Ha, Hb, A1, A2. cbn [andb]. repeat split; try reflexivity.
  - unfold remove_us, underscore in *. cbn [filter]. rewrite Hu. cbn [negb]. rewrite A3. reflexivity.
  - discriminate.
  - exists b, t2, v2. auto.
Qed.

Lemma unsigned_one_star u ds : unsigned_dec_int u ds -> cat (one Abnf.digit) (star (us_digit Abnf.digit)) u ds.
Proof.
  intros [(b & Hb & -> & ->) | (t1 & v1 & t2 & v2 & -> & -> & (b & Hb & -> & ->) & (ta & va & tb & vb & -> & -> & Ha & Hb2))].
  - exists [b], [b], [], []. repeat split; [exists b; auto|apply star_nil].
  - exists [b], [b], (ta ++ tb), (va ++ vb). repeat split; [|apply star_cons; assumption].
    exists b. split; [apply digit1_9_digit; exact Hb|auto].
Qed.

Lemma unsigned_facts u ds : unsigned_dec_int u ds ->
  forallb ascii u = true /\ forallb Abnf.digit ds = true /\ remove_us u = ds /\ ds <> []
  /\ exists b u', u = b :: u' /\ Abnf.digit b = true.
Proof.
  intro H. apply unsigned_one_star in H.
  destruct (cat_one_star_facts _ digit_class_digit u ds H) as (Au & Ad & Ar & Ane & b & t & v & -> & _ & Hb & _).
  eauto 8.
Qed.

Definition dec_body : parser unit :=
  digits_us (one_of (in_class DIGIT1_9)) digit <|> pvoid digit.

Lemma dec_body_complete i u ds r :
  unsigned_dec_int u ds -> rest i = u ++ r -> stops (us_or Abnf.digit) r -> dec_body i = Ok tt (adv u i).
Proof.
  intros [(b & Hb & -> & ->) | (t1 & v1 & t2 & v2 & -> & -> & (b & Hb & -> & ->) & (ta & va & tb & vb & -> & -> & Ha & Hb2))] H Hr;
    unfold dec_body, digit.
  - destruct (digit1_9 b) eqn:E.
    + apply alt_ok.
      apply (digits_us_complete _ _ DIGIT_ok digit_class_digit _ _ DIGIT1_9_ok i b [] [] r H E (star_nil _) Hr).
    + rewrite alt_fails_l.
      * apply (pvoid_ok _ _ b). apply (one_of_ok _ i b r H). rewrite DIGIT_ok. exact Hb.
      * apply (digits_us_fails _ _ _ DIGIT1_9_ok). rewrite H. cbn [app stops]. exact E.
  - apply alt_ok.
    apply (digits_us_complete _ _ DIGIT_ok digit_class_digit _ _ DIGIT1_9_ok i b (ta ++ tb) (va ++ vb) r H Hb).
    + apply star_cons; assumption.
    + exact Hr.
Qed.

Lemma dec_body_sound i x i' : dec_body i = Ok x i' ->
  exists u ds, unsigned_dec_int u ds /\ splits i u i'.
Proof.
  unfold dec_body, digit. intro H. apply alt_inv in H as [H | [_ H]].
  - apply (digits_us_sound _ _ DIGIT_ok digit_class_digit _ _ DIGIT1_9_ok) in H as (b & t & v & Hb & St & S & Hs).
    destruct St as [|t1 v1 t2 v2 H1 H2].
    + exists [b], [b]. split; [left; exists b; split; [apply digit1_9_digit; exact Hb|auto]|auto].
    + exists ([b] ++ t1 ++ t2), ([b] ++ v1 ++ v2). split; [|auto].
      right. exists [b], [b], (t1 ++ t2), (v1 ++ v2). repeat split; [exists b; auto|].
      exists t1, v1, t2, v2. auto.
  - apply pvoid_inv in H as (b & H). apply one_of_inv in H as [Hb S]. rewrite DIGIT_ok in Hb.
    exists [b], [b]. split; [left; exists b; auto|exact S].
Qed.

(* [ minus / plus ] *)
Lemma opt_sign_complete i sg neg r : sign sg neg -> rest i = sg ++ r -> stops is_sign r ->
  opt (one_of is_sign) i = Ok (match sg with [] => None | b :: _ => Some b end) (adv sg i).
Proof.
  intros [[-> ->] | [[-> ->] | [-> ->]]] H Hr.
  - rewrite adv_nil. apply opt_fails, one_of_fails. rewrite H. exact Hr.
  - apply opt_ok. apply (one_of_ok is_sign i x2b r H). reflexivity.
  - apply opt_ok. apply (one_of_ok is_sign i x2d r H). reflexivity.
Qed.

Lemma is_sign_cases b : is_sign b = true -> b = x2b \/ b = x2d.
Proof.
  unfold is_sign, plus, dash. intro H. apply orb_true_iff in H as [H | H]; apply byte_eqb_eq in H; auto.
Qed.

Lemma opt_sign_sound i o i' : opt (one_of is_sign) i = Ok o i' ->
  exists sg neg, sign sg neg /\ splits i sg i' /\ o = match sg with [] => None | b :: _ => Some b end.
Proof.
  intro H. apply opt_inv in H as [(b & -> & H) | (-> & -> & _)].
  - apply one_of_inv in H as [Hb S]. apply is_sign_cases in Hb as [-> | ->].
    + exists [x2b], false. split; [right; left; auto|auto].
    + exists [x2d], true. split; [right; right; auto|auto].
  - exists [], false. split; [left; auto|]. split; [apply splits_nil|reflexivity].
Qed.

Lemma dec_int_unfold i :
  dec_int i = context (unchecked_utf8 10 (taken (opt (one_of is_sign) ;;; dec_body))) i.
Proof. reflexivity. Qed.

Lemma digit_stops_sign b r : Abnf.digit b = true -> stops is_sign (b :: r).
Proof. intro H. cbn [stops]. unfold is_sign. destruct (digit_not_sign b H) as [-> ->]. reflexivity. Qed.

Lemma dec_int_complete i sg neg u ds r :
  sign sg neg -> unsigned_dec_int u ds -> rest i = (sg ++ u) ++ r -> stops (us_or Abnf.digit) r ->
  dec_int i = Ok (sg ++ u) (adv (sg ++ u) i).
Proof.
  intros Hs Hu H Hr. rewrite dec_int_unfold.
  destruct (sign_facts sg neg Hs) as [As _]. destruct (unsigned_facts u ds Hu) as (Au & _ & _ & _ & b & u' & -> & Hb).
  apply context_ok, unchecked_ok.
  - rewrite <- app_assoc in H. apply (taken_ok _ _ tt).
    + rewrite (bind_ok _ _ _ _ _ (opt_sign_complete i sg neg _ Hs H (digit_stops_sign b _ Hb))).
      rewrite (dec_body_complete (adv sg i) (b :: u') ds r Hu (rest_adv _ _ _ H) Hr). rewrite adv_adv. reflexivity.
    + apply (splits_adv i (sg ++ b :: u') r). rewrite <- app_assoc. exact H.
  - apply utf8_ascii. rewrite forallb_app, As, Au. reflexivity.
Qed.

Lemma dec_int_sound i s i' : dec_int i = Ok s i' ->
  splits i s i' /\ exists sg neg u ds, s = sg ++ u /\ sign sg neg /\ unsigned_dec_int u ds.
Proof.
  rewrite dec_int_unfold. intro H. apply context_inv, unchecked_inv in H as [H _].
  apply taken_inv in H as (x & H & Es). apply bind_inv in H as (o & i1 & H1 & H).
  apply opt_sign_sound in H1 as (sg & neg & Hs & S1 & _).
  apply dec_body_sound in H as (u & ds & Hu & S2).
  pose proof (splits_trans _ _ _ _ _ S1 S2) as S. rewrite (splits_taken _ _ _ S) in Es. subst s.
  split; [exact S|]. exists sg, neg, u, ds. auto.
Qed.

(* dec_int fails without commitment when no digit follows the optional sign *)
Lemma dec_int_fails i sg neg r : sign sg neg -> rest i = sg ++ r -> stops is_sign r -> stops Abnf.digit r ->
  fails dec_int i.
Proof.
  intros Hs H Hr Hd. unfold fails. rewrite dec_int_unfold. apply context_fails, unchecked_fails, taken_fails.
  unfold fails. rewrite (bind_ok _ _ _ _ _ (opt_sign_complete i sg neg r Hs H Hr)).
  pose proof (rest_adv _ _ _ H) as R. unfold dec_body, digit. apply alt_fails.
  - apply (digits_us_fails _ _ _ DIGIT1_9_ok). rewrite R. destruct r as [|b r]; [exact I|].
    cbn [stops] in *. destruct (digit1_9 b) eqn:E; [|reflexivity]. apply digit1_9_digit in E. congruence.
  - apply pvoid_fails, one_of_fails. rewrite R. destruct r; [exact I|]. cbn [stops] in *. rewrite DIGIT_ok. exact Hd.
Qed.

(* ---- hex-int / oct-int / bin-int = prefix d *( d / underscore d ) --------------------------------------------- *)
Section Prefixed.
  Variables (g c : byte -> bool) (w : N) (prefix : bytes).
  Hypothesis Hg : forall b, g b = c b.
  Hypothesis Hc : digit_class c.

  Lemma prefixed_complete i u ds r :
    cat (one c) (star (us_digit c)) u ds -> rest i = (prefix ++ u) ++ r -> stops (us_or c) r ->
    prefixed_int w prefix (one_of g) i = Ok u (adv (prefix ++ u) i).
  Proof.
    intros Hu H Hr. destruct (cat_one_star_facts c Hc u ds Hu) as (Au & _ & _ & _ & b & t & v & -> & _ & Hb & St).
    unfold prefixed_int, preceded. apply context_ok, unchecked_ok; [|apply utf8_ascii; exact Au].
    rewrite <- app_assoc in H. rewrite (bind_ok _ _ _ _ _ (lit_ok prefix i _ H)).
    pose proof (rest_adv _ _ _ H) as R. rewrite <- adv_adv.
    apply (taken_ok _ _ tt); [|apply (splits_adv _ _ r R)]. apply cut_err_ok.
    apply (digits_us_complete g c Hg Hc g c Hg _ b t v r R Hb St Hr).
  Qed.

  Lemma prefixed_sound i u i' : prefixed_int w prefix (one_of g) i = Ok u i' ->
    splits i (prefix ++ u) i' /\ (exists ds, cat (one c) (star (us_digit c)) u ds) /\ stops (us_or c) (rest i').
  Proof.
    unfold prefixed_int, preceded. intro H. apply context_inv, unchecked_inv in H as [H _].
    apply bind_inv in H as (x & i1 & H1 & H). apply lit_inv in H1 as [_ S1].
    apply taken_inv in H as (y & H & Es). apply cut_err_inv in H.
    apply (digits_us_sound g c Hg Hc g c Hg) in H as (b & t & v & Hb & St & S2 & Hs).
    rewrite (splits_taken _ _ _ S2) in Es. subst u. split; [apply (splits_trans _ _ _ _ _ S1 S2)|].
    split; [|exact Hs]. exists ([b] ++ v). exists [b], [b], t, v. repeat split; [exists b; auto|exact St].
  Qed.

  (* after the prefix the parser is committed: no digit means Cut *)
  Lemma prefixed_fails i : (forall r, rest i <> prefix ++ r) -> fails (prefixed_int w prefix (one_of g)) i.
  Proof.
    intro H. unfold prefixed_int, preceded. apply context_fails, unchecked_fails, bind_fails, lit_fails. exact H.
  Qed.

End Prefixed.

Lemma int_of_prefixed radix c u ds : radix_class radix c -> cat (one c) (star (us_digit c)) u ds ->
  int_of radix u = if in_i64 (Z.of_N (horner radix ds)) then TmOk (Z.of_N (horner radix ds)) else TmErr IntError.
Proof.
  intros Hrc Hu.
  destruct (cat_one_star_facts c (radix_class_digit_class _ _ Hrc) u ds Hu) as (_ & Ac & Ar & Ane & _).
  unfold int_of. rewrite Ar. rewrite (i64_unsigned radix c ds Hrc Ane Ac).
  destruct (in_i64 (Z.of_N (horner radix ds))); reflexivity.
Qed.

(* what a prefixed parser returns on a token of its kind, in or out of range *)
Lemma prefixed_integer_eval g c w prefix radix i u ds r :
  (forall b, g b = c b) -> radix_class radix c ->
  cat (one c) (star (us_digit c)) u ds -> rest i = (prefix ++ u) ++ r -> stops unquoted_key_char r ->
  cut_err (try_map (int_of radix) (prefixed_int w prefix (one_of g))) i
  = if in_i64 (Z.of_N (horner radix ds)) then Ok (Z.of_N (horner radix ds)) (adv (prefix ++ u) i)
    else Cut (err_of IntError) i.
Proof.
  intros Hg Hrc Hu H Hr. unfold cut_err, try_map.
  rewrite (prefixed_complete g c w prefix Hg (radix_class_digit_class _ _ Hrc) i u ds r Hu H
             (radix_class_stops _ _ Hrc r Hr)).
  rewrite (int_of_prefixed radix c u ds Hrc Hu).
  destruct (in_i64 (Z.of_N (horner radix ds))); reflexivity.
Qed.

(* ---- integer = dec-int / hex-int / oct-int / bin-int ----------------------------------------------------------------- *)
Definition int_sub (s : bytes) : sub Z :=
  match int_of 10 s with
  | TmOk z => SubOk z
  | TmErr c => SubCut (err_of c)
  | TmPanic st => SubPanic st
  end.

Lemma int_of_dec sg neg u ds : sign sg neg -> unsigned_dec_int u ds ->
  int_of 10 (sg ++ u) = if in_i64 (signed neg (horner 10 ds)) then TmOk (signed neg (horner 10 ds)) else TmErr IntError.
Proof.
  intros Hs Hu. destruct (sign_facts sg neg Hs) as [_ Rs].
  destruct (unsigned_facts u ds Hu) as (_ & Ad & Ru & Ane & _).
  unfold int_of. rewrite remove_us_app, Rs, Ru. rewrite (i64_signed sg neg ds Hs Ane Ad).
  destruct (in_i64 (signed neg (horner 10 ds))); reflexivity.
Qed.

Lemma integer_is_dec i :
  (forall c rr, rest i = x30 :: c :: rr -> c <> x78 /\ c <> x6f /\ c <> x62) ->
  integer i = and_then dec_int int_sub i.
Proof.
  intro H. unfold integer. destruct (rest i) as [|a [|c rr]] eqn:E.
  - reflexivity.
  - cbn [firstn bytes_eqb]. rewrite !andb_false_r. reflexivity.
  - cbn [firstn bytes_eqb]. destruct (byte_eqb a x30) eqn:A.
    + apply byte_eqb_eq in A. subst a. destruct (H c rr eq_refl) as (N1 & N2 & N3).
      apply byte_eqb_neq in N1, N2, N3. rewrite N1, N2, N3. reflexivity.
    + reflexivity.
Qed.

Lemma integer_is_hex i r : rest i = [x30; x78] ++ r -> integer i = cut_err (try_map (int_of 16) hex_int) i.
Proof. intro H. unfold integer. rewrite H. reflexivity. Qed.
Lemma integer_is_oct i r : rest i = [x30; x6f] ++ r -> integer i = cut_err (try_map (int_of 8) oct_int) i.
Proof. intro H. unfold integer. rewrite H. reflexivity. Qed.
Lemma integer_is_bin i r : rest i = [x30; x62] ++ r -> integer i = cut_err (try_map (int_of 2) bin_int) i.
Proof. intro H. unfold integer. rewrite H. reflexivity. Qed.

(* a decimal token followed by a byte that cannot continue a bare word does not look like a prefix *)
Lemma dec_not_prefixed sg neg u ds r c rr :
  sign sg neg -> unsigned_dec_int u ds -> stops unquoted_key_char r ->
  (sg ++ u) ++ r = x30 :: c :: rr -> c <> x78 /\ c <> x6f /\ c <> x62.
Proof.
  intros [[-> ->] | [[-> ->] | [-> ->]]] Hu Hr E; try discriminate. cbn [app] in E.
  destruct Hu as [(b & Hb & -> & ->) | (t1 & v1 & t2 & v2 & -> & -> & (b & Hb & -> & ->) & _)].
  - injection E as -> ->. cbn [stops] in Hr. repeat split; intros ->; discriminate.
  - injection E as -> _. discriminate.
Qed.

(* what `integer` returns on a decimal token, in or out of range *)
Lemma integer_dec_eval i t z r : dec_int_tok t z -> rest i = t ++ r -> stops unquoted_key_char r ->
  integer i = if in_i64 z then Ok z (adv t i) else Cut (err_of IntError) i.
Proof.
  intros (sg & neg & u & ds & -> & Hs & Hu & ->) H Hr.
  rewrite integer_is_dec.
  - unfold and_then. rewrite (dec_int_complete i sg neg u ds r Hs Hu H (unquoted_stops_digit r Hr)).
    unfold int_sub. rewrite (int_of_dec sg neg u ds Hs Hu).
    destruct (in_i64 (signed neg (horner 10 ds))); reflexivity.
  - intros c rr E. rewrite H in E. apply (dec_not_prefixed sg neg u ds r c rr Hs Hu Hr E).
Qed.

(* completeness with the value, and "out of range => committed error", for all four bases *)
Theorem integer_eval i t z r : integer_tok t z -> rest i = t ++ r -> stops unquoted_key_char r ->
  integer i = if in_i64 z then Ok z (adv t i) else Cut (err_of IntError) i.
Proof.
  intros [H | [(u & ds & -> & Hu & ->) | [(u & ds & -> & Hu & ->) | (u & ds & -> & Hu & ->)]]] E Hr.
  - apply (integer_dec_eval i t z r H E Hr).
  - rewrite (integer_is_hex i (u ++ r)) by (rewrite E, <- app_assoc; reflexivity).
    apply (prefixed_integer_eval _ _ 11 _ 16 i u ds r HEXDIG_ok radix_class_16 Hu E Hr).
  - rewrite (integer_is_oct i (u ++ r)) by (rewrite E, <- app_assoc; reflexivity).
    apply (prefixed_integer_eval _ _ 12 _ 8 i u ds r DIGIT0_7_ok radix_class_8 Hu E Hr).
  - rewrite (integer_is_bin i (u ++ r)) by (rewrite E, <- app_assoc; reflexivity).
    apply (prefixed_integer_eval _ _ 13 _ 2 i u ds r DIGIT0_1_ok radix_class_2 Hu E Hr).
Qed.

Theorem integer_complete i t z r : integer_tok t z -> in_i64 z = true -> rest i = t ++ r ->
  stops unquoted_key_char r -> integer i = Ok z (adv t i).
Proof. intros H Hz E Hr. rewrite (integer_eval i t z r H E Hr), Hz. reflexivity. Qed.

Theorem integer_out_of_range i t z r : integer_tok t z -> in_i64 z = false -> rest i = t ++ r ->
  stops unquoted_key_char r -> integer i = Cut (err_of IntError) i.
Proof. intros H Hz E Hr. rewrite (integer_eval i t z r H E Hr), Hz. reflexivity. Qed.

Lemma tm_if_inv (c : bool) (z z' : Z) : (if c then TmOk z else TmErr IntError) = TmOk z' -> c = true /\ z' = z.
Proof. destruct c; [|discriminate]. intro H. injection H as <-. auto. Qed.

Lemma prefixed_integer_sound g c w prefix radix i z i' :
  (forall b, g b = c b) -> radix_class radix c ->
  cut_err (try_map (int_of radix) (prefixed_int w prefix (one_of g))) i = Ok z i' ->
  exists t, prefixed_int_tok prefix c radix t z /\ splits i t i' /\ in_i64 z = true /\ stops (us_or c) (rest i').
Proof.
  intros Hg Hrc H. apply cut_err_inv, try_map_inv in H as (u & H & Hv).
  apply (prefixed_sound g c w prefix Hg (radix_class_digit_class _ _ Hrc)) in H as (S & (ds & Hu) & Hs).
  rewrite (int_of_prefixed radix c u ds Hrc Hu) in Hv. apply tm_if_inv in Hv as [Hz ->].
  exists (prefix ++ u). split; [exists u, ds; auto|auto].
Qed.

Theorem integer_sound i z i' : integer i = Ok z i' ->
  exists t, integer_tok t z /\ splits i t i' /\ in_i64 z = true.
Proof.
  unfold integer. intro H.
  destruct (bytes_eqb (firstn 2 (rest i)) [x30; x78]).
  { apply (prefixed_integer_sound _ _ _ _ 16 _ _ _ HEXDIG_ok radix_class_16)
      in H as (t & Ht & S & Hz & _).
    exists t. split; [right; left; exact Ht|auto]. }
  destruct (bytes_eqb (firstn 2 (rest i)) [x30; x6f]).
  { apply (prefixed_integer_sound _ _ _ _ 8 _ _ _ DIGIT0_7_ok radix_class_8)
      in H as (t & Ht & S & Hz & _).
    exists t. split; [right; right; left; exact Ht|auto]. }
  destruct (bytes_eqb (firstn 2 (rest i)) [x30; x62]).
  { apply (prefixed_integer_sound _ _ _ _ 2 _ _ _ DIGIT0_1_ok radix_class_2)
      in H as (t & Ht & S & Hz & _).
    exists t. split; [right; right; right; exact Ht|auto]. }
  apply and_then_inv in H as (s & H & Hv). apply dec_int_sound in H as (S & sg & neg & u & ds & -> & Hs & Hu).
  rewrite (int_of_dec sg neg u ds Hs Hu) in Hv.
  destruct (in_i64 (signed neg (horner 10 ds))) eqn:Hz; [|discriminate]. injection Hv as <-.
  exists (sg ++ u). split; [left; exists sg, neg, u, ds; auto|auto].
Qed.

(* a committed failure of `integer` leaves no derivation with an acceptable follower *)
Corollary integer_cut_only i e j : integer i = Cut e j ->
  forall t z r, integer_tok t z -> rest i = t ++ r -> stops unquoted_key_char r -> in_i64 z = false.
Proof.
  intros H t z r Ht E Hr. rewrite (integer_eval i t z r Ht E Hr) in H.
  destruct (in_i64 z); [discriminate|reflexivity].
Qed.
