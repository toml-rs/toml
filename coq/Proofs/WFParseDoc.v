(* Proofs/WFParseDoc.v — parsed documents are well-formed, part 4: the document loop (document.rs / table.rs).
   Through every line the parse state keeps `sinv` (Proofs/WFParseState.v): the trivia collected between items
   (`st_trailing`) is complete comment / blank lines followed by blanks, so it is legal in front of a key or a header;
   the values come from `value` (Proofs/WFParseValue.v), the keys from `key` (Proofs/WFParseBase.v). *)
From TV Require Import Base.Prelude Base.Winnow Spec.Lex Spec.Syntax Spec.WF.
From TV Require Import Model.Trivia Model.Tree Model.Parse Model.Document.
From TV Require Import Proofs.NoPanicBase Proofs.NoPanicLex Proofs.NoPanicValue.
From TV Require Import Proofs.LexEquivBase Proofs.LexEquivTrivia Proofs.LexEquivKey Proofs.GrammarSep
                       Proofs.GrammarValueSound Proofs.GrammarDocLine
                       Proofs.TilingDefs Proofs.PrintBackBase Proofs.PrintBackEnc.
From TV Require Import Proofs.WFPrintKey Proofs.WFPrintValue
                       Proofs.WFParseBase Proofs.WFParseValue Proofs.WFParseState.
From TV Require Import Proofs.ModelFacts.
From TV Require Import Proofs.DocumentOps.
Require Import Lia NArith.

(* ---- the trivia between items ----------------------------------------------------------------------------------------- *)
(* blanks, line ends, comments with their line ends, in any order: *( ws / newline / comment newline ) *)
Inductive trail_tok : bytes -> Prop :=
| tr_nil : trail_tok []
| tr_ws t w : trail_tok t -> ws_tok w -> trail_tok (t ++ w)
| tr_nl t nl : trail_tok t -> newline_tok nl -> trail_tok (t ++ nl)
| tr_cmt t c nl : trail_tok t -> comment_tok c -> newline_tok nl -> trail_tok (t ++ c ++ nl).
(* ... ended by a comment that the end of the text terminates *)
Definition dtrail (t : bytes) : Prop := exists t' c, t = t' ++ c /\ trail_tok t' /\ comment_tok c.

Lemma lines_lf : lines_tok [x0a].
Proof. apply (ln_more [] [] []); [reflexivity|left; reflexivity|apply ln_last; reflexivity]. Qed.
Lemma lines_cmt c : comment_tok c -> lines_tok (c ++ [x0a]).
Proof. intro H. apply (ln_more [] c []); [reflexivity|right; exact H|apply ln_last; reflexivity]. Qed.

Lemma trail_lines t : trail_tok t -> lines_tok (ncr t).
Proof.
  induction 1 as [|t w _ IH Hw|t nl _ IH Hn|t c nl _ IH Hc Hn]; [apply ln_last; reflexivity| | |]; rewrite ?ncr_app.
  - rewrite (ncr_ws w Hw). apply lines_ws; assumption.
  - rewrite (ncr_newline nl Hn). apply lines_app; [exact IH|apply lines_lf].
  - rewrite (ncr_comment c Hc), (ncr_newline nl Hn). apply lines_app; [exact IH|apply lines_cmt, Hc].
Qed.
Lemma lines_doc_trail t : lines_tok t -> doc_trail_tok t.
Proof. induction 1 as [w Hw|w c t Hw Hc _ IH]; [apply dt_last, ws_line_trail, Hw|apply dt_more; assumption]. Qed.
Lemma doc_trail_app a b : lines_tok a -> doc_trail_tok b -> doc_trail_tok (a ++ b).
Proof.
  intros Ha Hb. induction Ha as [w Hw|w c t Hw Hc _ IH].
  - destruct Hb as [b (w' & c' & -> & Hw' & Hc')|w' c' t' Hw' Hc' Ht'].
    + apply dt_last. exists (w ++ w'), c'. rewrite app_assoc. split; [reflexivity|]. split; [apply ws_app; assumption|exact Hc'].
    + rewrite app_assoc. apply dt_more; [apply ws_app; assumption|exact Hc'|exact Ht'].
  - rewrite <- !app_assoc. apply dt_more; [exact Hw|exact Hc|exact IH].
Qed.
Lemma dtrail_doc t : dtrail t -> doc_trail_tok (ncr t).
Proof.
  intros (t' & c & -> & Ht & Hc). rewrite ncr_app, (ncr_comment c Hc). apply doc_trail_app; [apply trail_lines, Ht|].
  apply dt_last. exists [], c. split; [reflexivity|]. split; [reflexivity|right; exact Hc].
Qed.

Section PD.
  Variable s : bytes.
  Local Notation sinv := (sinv s).
  Local Notation kline := (kline s).

  (* the collected trivia: from some earlier cursor i0 to the cursor i *)
  Definition trail_ok (st : pstate) (i : input) : Prop :=
    exists i0 t, isrc s i0 /\ splits i0 t i /\ (trail_tok t \/ (rest i = [] /\ dtrail t))
                 /\ match st_trailing st with Some sp => sp = (pos i0, pos i) | None => t = [] end.
  Definition pinv (st : pstate) (i : input) : Prop := sinv st /\ isrc s i /\ depth i = 0 /\ trail_ok st i.

  Lemma trail_none st i : isrc s i -> st_trailing st = None -> trail_ok st i.
  Proof. intros Hi E. exists i, []. rewrite E. split; [exact Hi|]. split; [apply splits_nil|]. split; [left; constructor|reflexivity]. Qed.

  Lemma splits_at_end i w i' : rest i = [] -> splits i w i' -> w = [] /\ i' = i.
  Proof. intros R [R' E]. rewrite R in R'. destruct w; [|discriminate]. split; [reflexivity|]. rewrite E. apply adv_nil. Qed.

  Lemma trail_on_ws st i sp w i' :
    trail_ok st i -> splits i w i' -> sp = (pos i, pos i') ->
    (rest i <> [] -> forall t, trail_tok t -> trail_tok (t ++ w) \/ (rest i' = [] /\ dtrail (t ++ w))) ->
    trail_ok (on_ws st sp) i'.
  Proof.
    intros (i0 & t & Hi0 & S0 & Ht & Hsp) S -> Hw. exists i0, (t ++ w). split; [exact Hi0|]. split; [exact (splits_trans _ _ _ _ _ S0 S)|].
    split.
    - destruct Ht as [Ht|[R Ht]].
      + destruct (rest i) eqn:R; [|apply Hw; [discriminate|exact Ht]].
        destruct (splits_at_end i w i' R S) as [-> ->]. rewrite app_nil_r. left. exact Ht.
      + destruct (splits_at_end i w i' R S) as [-> ->]. rewrite app_nil_r. right. auto.
    - unfold on_ws. cbn [st_trailing]. destruct (st_trailing st) as [old|]; [subst old; reflexivity|]. subst t. cbn [fst snd app].
      destruct S0 as [_ E0]. rewrite adv_nil in E0. subst i0. reflexivity.
  Qed.

  (* the trivia in front of a header or a key/value line *)
  Lemma trail_lead st i : trail_ok st i -> rest i <> [] -> raw_ok SLines (traw s (trailing_raw st)).
  Proof.
    intros (i0 & t & Hi0 & S0 & Ht & Hsp) Hne. unfold trailing_raw. destruct (st_trailing st) as [sp|]; [|apply empty_raw_ok].
    subst sp. apply (span_raw_ok s SLines i0 t i Hi0 S0). destruct Ht as [Ht|[R _]]; [apply trail_lines, Ht|contradiction].
  Qed.
  Lemma trail_kv_prefix st i k w0 j1 :
    trail_ok st i -> rest i <> [] -> ws_tok w0 -> splits i w0 j1 -> isrc s i ->
    d_prefix (k_leaf k) = Some (raw_with_span (pos i, pos j1)) ->
    raw_ok SLines (traw s (kv_prefix st k)).
  Proof.
    intros (i0 & t & Hi0 & S0 & Ht & Hsp) Hne Hw0 S1 Hi Hd. unfold kv_prefix. rewrite Hd.
    assert (Htl : lines_tok (ncr t)) by (destruct Ht as [Ht|[R _]]; [apply trail_lines, Ht|contradiction]).
    assert (Ers : raw_span (raw_with_span (pos i, pos j1)) = if (pos i =? pos j1)%N then None else Some (pos i, pos j1))
      by (unfold raw_with_span; cbn [fst snd]; destruct (pos i =? pos j1)%N; reflexivity).
    rewrite Ers. destruct (pos i =? pos j1)%N eqn:E.
    - destruct (st_trailing st) as [sp|]; [|apply empty_raw_ok]. subst sp. apply (span_raw_ok s SLines i0 t i Hi0 S0 Htl).
    - destruct (st_trailing st) as [sp|].
      + subst sp. cbn [fst snd]. apply (span_raw_ok s SLines i0 (t ++ w0) j1 Hi0 (splits_trans _ _ _ _ _ S0 S1)).
        rewrite ncr_app, (ncr_ws w0 Hw0). apply lines_ws; assumption.
      + apply (span_ws_ok s SLines i w0 j1 Hi S1 Hw0).
  Qed.

  (* ---- key paths: where the leaf prefix comes from -------------------------------------------------------------------- *)
  Lemma key_leaf_prefix i kp i' : key_ i = Ok kp i' ->
    exists w0 j1, ws_tok w0 /\ splits i w0 j1
                  /\ forall path k, pop_key kp = Some (path, k) -> d_prefix (k_leaf k) = Some (raw_with_span (pos i, pos j1)).
  Proof.
    unfold key_. intro H. apply bind_inv in H as (path & j & H1 & H).
    apply try_map_inv in H1 as (path0 & H1 & Htm). apply context_inv in H1.
    apply (separated1_inv _ _ _ _ _ key_part_shrinking dot_sep_shrinking) in H1 as (a & i1 & l & -> & Ea & R).
    destruct (check_depth (length (a :: l))); [discriminate|]. injection Htm as <-.
    destruct (fix_key_path (a :: l)) as [p|] eqn:Ef; [|discriminate]. apply ret_inv in H as [-> _].
    unfold key_part in Ea. apply bind_inv in Ea as (pre & j1 & E1 & Ea). pose proof E1 as E1'. apply span_inv in E1' as (w0 & Ew & Epre).
    apply ws_sound in Ew as (Hw0 & S1 & _).
    apply bind_inv in Ea as ([rw k0] & j2 & _ & Ea). apply bind_inv in Ea as (suf & j3 & _ & Ea). apply ret_inv in Ea as [-> _].
    exists w0, j1. split; [exact Hw0|]. split; [exact S1|]. intros pth k Hpop.
    unfold fix_key_path in Ef. cbn [k_dotted decor_new d_prefix] in Ef.
    match type of Ef with context [rev (?F :: l)] => set (first' := F) in * end.
    destruct (rev (first' :: l)) as [|last rinit] eqn:Er; [discriminate|]. injection Ef as <-.
    unfold pop_key in Hpop. cbn [rev] in Hpop. rewrite rev_app_distr, rev_involutive in Hpop. cbn [rev app] in Hpop. injection Hpop as _ <-. cbn [set_leaf k_leaf decor_new d_prefix]. subst pre. reflexivity.
  Qed.

  (* ---- line_trailing ------------------------------------------------------------------------------------------------- *)
  Lemma line_trailing_span i sp i' : line_trailing i = Ok sp i' ->
    exists w c j le, ws_tok w /\ opt_comment c /\ splits i (w ++ c) j /\ sp = (pos i, pos j) /\ splits j le i' /\ lend le (rest i').
  Proof.
    rewrite line_trailing_unfold. intro H. apply bind_inv in H as (a & j1 & H1 & H).
    pose proof H1 as H1'. apply span_inv in H1' as (o & E1 & Esp). apply bind_inv in E1 as (w & k1 & Ew & E1). apply ws_sound in Ew as (Hw & S1 & _).
    apply bind_inv in H as (u & j2 & H2 & H). apply line_ending_sound in H2 as (le & S3 & Hl). apply ret_inv in H as [-> ->].
    assert (G : exists c, opt_comment c /\ splits k1 c j1).
    { apply opt_inv in E1 as [(x & _ & E1) | (_ & -> & _)].
      - apply comment_sound in E1 as (c & Hc & Sc & _). exists c. split; [right; exact Hc|exact Sc].
      - exists []. split; [left; reflexivity|apply splits_nil]. }
    destruct G as (c & Hc & Sc). exists w, c, j1, le. split; [exact Hw|]. split; [exact Hc|]. split; [exact (splits_trans _ _ _ _ _ S1 Sc)|]. auto.
  Qed.
  Lemma line_trail_ncr w c : ws_tok w -> opt_comment c -> line_trail_tok (ncr (w ++ c)).
  Proof. intros Hw Hc. rewrite ncr_app, (ncr_ws w Hw), (ncr_opt_comment c Hc). exists w, c. auto. Qed.

  (* ---- a key/value line ------------------------------------------------------------------------------------------------- *)
  Lemma keyval_pinv st i st1 i1 : keyval st i = Ok st1 i1 -> pinv st i -> rest i <> [] ->
    sinv st1 /\ isrc s i1 /\ depth i1 = 0 /\ st_trailing st1 = None.
  Proof.
    unfold keyval. intros H (Hs & Hi & Hd & Htr) Hne. apply try_map_inv in H as ([path [k it]] & H & Hst).
    rewrite parse_keyval_unfold in H. apply bind_inv in H as (kp & j1 & H1 & H).
    destruct (key_good s i kp j1 Hi H1) as (Hj1 & Hkp & Hkne & Hklen). pose proof (ext_depth _ _ _ (key_mono _ _ _ H1)) as D1.
    destruct (key_leaf_prefix i kp j1 H1) as (w0 & jw & Hw0 & Sw0 & Hleaf).
    apply bind_inv in H as ([[pre v] suf] & j2 & H2 & H).
    apply cut_err_inv in H2. apply bind_inv in H2 as (y & k1 & E1 & H2). apply context_inv, byte_inv in E1 as [_ Se].
    destruct (isrc_splits s j1 _ k1 Hj1 Se) as [Hk1 _].
    apply bind_inv in H2 as (pre' & k2 & E2 & H2). pose proof E2 as E2'. apply span_inv in E2' as (u2 & _ & Epre).
    apply span_ws_inv in E2 as (w2 & Hw2 & S2 & _). destruct (isrc_splits s k1 w2 k2 Hk1 S2) as [Hk2 _].
    apply bind_inv in H2 as (v' & k3 & E3 & H2).
    assert (Dk2 : depth k2 = 0) by (rewrite (splits_depth _ _ _ S2), (splits_depth _ _ _ Se), D1; exact Hd).
    destruct (value_good s k2 v' k3 Hk2 E3) as (Hk3 & Hb & Hl & Hwr). rewrite Dk2 in Hl.
    pose proof (ext_depth _ _ _ (proj1 (value_f_all _) _ _ _ E3)) as D3.
    apply bind_inv in H2 as (suf' & k4 & E4 & H2). apply context_inv in E4.
    destruct (line_trailing_span k3 suf' k4 E4) as (w & c & jt & le & Hw & Hc & St & Esuf & Sle & Hlend).
    destruct (isrc_splits s k3 _ jt Hk3 St) as [Hjt _]. destruct (isrc_splits s jt _ k4 Hjt Sle) as [Hk4 _].
    apply ret_inv in H2 as [E ->]. injection E as -> -> ->.
    destruct (pop_key kp) as [[pth kk]|] eqn:Ep; [|discriminate]. apply ret_inv in H as [E ->]. injection E as <- <- ->.
    destruct (pop_key_good s kp path k Hkp Ep) as (Hpath & Hk & Ekp).
    destruct (on_keyval_sp st path k _) as [st'| |] eqn:Eo; try discriminate. cbn [lift_state] in Hst. injection Hst as <-.
    subst pre' suf'.
    destruct (on_keyval_sp_sinv s st path k _ st' Eo Hs) as (Hs' & _ & Et').
    - eapply Forall_impl; [|exact Hpath]. intros a Ha. apply kgood_kline, Ha.
    - exact Hk.
    - apply (trail_kv_prefix st i k w0 jw Htr Hne Hw0 Sw0 Hi). apply (Hleaf path k eq_refl).
    - apply (decorated_ok s CLine v' k1 w2 k2 k3 (w ++ c) jt Hb Hk1 S2 Hk3 St); cbn [pre_slot suf_slot slot_ok];
        [rewrite (ncr_ws w2 Hw2); exact Hw2|apply line_trail_ncr; assumption].
    - apply written_decorate, Hwr.
    - rewrite tvalue_decorate. apply value_lim_decorate, Hl.
    - rewrite Ekp, app_length in Hklen. cbn [length] in Hklen. lia.
    - split; [exact Hs'|]. split; [exact Hk4|]. split; [|exact Et'].
      rewrite (splits_depth _ _ _ Sle), (splits_depth _ _ _ St), D3. exact Dk2.
  Qed.

  (* ---- a header line ---------------------------------------------------------------------------------------------------- *)
  Lemma header_pinv arr st i st1 i1 : header arr st i = Ok st1 i1 -> pinv st i -> rest i <> [] ->
    sinv st1 /\ isrc s i1 /\ depth i1 = 0 /\ st_trailing st1 = None.
  Proof.
    rewrite header_unfold. intros H (Hs & Hi & Hd & Htr) Hne. apply try_map_inv in H as ([[kp sp] tr] & H & Hst).
    unfold header_text, pair_ in H. apply bind_inv in H as ([kp0 sp0] & j1 & H1 & H).
    apply bind_inv in H as (tr0 & j2 & H2 & H). apply ret_inv in H as [E ->]. injection E as <- <- <-.
    apply with_span_inv in H1 as (kp1 & H1 & E). injection E as <- _.
    unfold delimited in H1. apply bind_inv in H1 as (u & k1 & Eo & H1). apply open_p_inv in Eo.
    destruct (isrc_splits s i _ k1 Hi Eo) as [Hk1 _].
    apply bind_inv in H1 as (kp2 & k2 & Ek & H1). apply cut_err_inv in Ek.
    destruct (key_good s k1 kp2 k2 Hk1 Ek) as (Hk2 & Hkp & Hkne & Hklen). pose proof (ext_depth _ _ _ (key_mono _ _ _ Ek)) as D2.
    apply bind_inv in H1 as (u2 & k3 & Ec & H1). apply context_inv, cut_err_inv, close_p_inv in Ec.
    destruct (isrc_splits s k2 _ k3 Hk2 Ec) as [Hk3 _].
    apply ret_inv in H1 as [<- ->].
    apply context_inv, cut_err_inv in H2.
    destruct (line_trailing_span k3 tr j2 H2) as (w & c & jt & le & Hw & Hc & St & Etr & Sle & Hlend).
    destruct (isrc_splits s k3 _ jt Hk3 St) as [Hjt _]. destruct (isrc_splits s jt _ j2 Hjt Sle) as [Hj2 _].
    destruct (on_header arr st kp tr sp) as [st'| |] eqn:Eh; try discriminate. cbn [lift_state] in Hst. injection Hst as <-.
    destruct (on_header_sinv s arr st kp tr sp st' Eh Hs) as (Hs' & _ & Et').
    - eapply Forall_impl; [|exact Hkp]. intros a Ha. apply kgood_kline, Ha.
    - exact Hklen.
    - apply (trail_lead st i Htr Hne).
    - subst tr. apply (span_raw_ok s SLineTrail k3 (w ++ c) jt Hk3 St). apply line_trail_ncr; assumption.
    - split; [exact Hs'|]. split; [exact Hj2|]. split; [|exact Et'].
      rewrite (splits_depth _ _ _ Sle), (splits_depth _ _ _ St), (splits_depth _ _ _ Ec), D2, (splits_depth _ _ _ Eo). exact Hd.
  Qed.

  (* ---- one iteration ---------------------------------------------------------------------------------------------------- *)
  Lemma pinv_after st1 i1 : sinv st1 -> isrc s i1 -> depth i1 = 0 -> st_trailing st1 = None -> pinv st1 i1.
  Proof. intros H1 H2 H3 H4. split; [exact H1|]. split; [exact H2|]. split; [exact H3|apply trail_none; assumption]. Qed.

  Lemma line_read_pinv st i st1 i1 : line_read st i i1 st1 -> pinv st i -> rest i <> [] -> pinv st1 i1.
  Proof.
    intros Hr HP Hne. pose proof HP as (Hs & Hi & Hd & Htr).
    destruct (line_read_parsers _ _ _ _ Hr) as [H|[H|[[arr H]|H]]].
    - unfold parse_comment in H. apply pmap_inv in H as (sp & H & ->).
      pose proof H as H'. apply span_inv in H' as (u & H0 & Esp). apply bind_inv in H0 as (x & j1 & H1 & H2).
      apply comment_sound in H1 as (c & Hc & S1 & _). apply context_inv, line_ending_sound in H2 as (le & S2 & Hl).
      pose proof (splits_trans _ _ _ _ _ S1 S2) as S. destruct (isrc_splits s i _ i1 Hi S) as [Hi1 _].
      split; [apply sinv_on_ws, Hs|]. split; [exact Hi1|]. split; [rewrite (splits_depth _ _ _ S); exact Hd|].
      apply (trail_on_ws st i sp (c ++ le) i1 Htr S Esp). intros _ t Ht. destruct Hl as [Hn|[-> R]].
      + left. apply tr_cmt; assumption.
      + right. split; [exact R|]. rewrite app_nil_r. exists t, c. auto.
    - unfold parse_newline in H. apply pmap_inv in H as (sp & H & ->). pose proof H as H'. apply span_inv in H' as (u & H0 & Esp).
      apply newline_sound in H0 as (nl & Hn & S1). destruct (isrc_splits s i _ i1 Hi S1) as [Hi1 _].
      split; [apply sinv_on_ws, Hs|]. split; [exact Hi1|]. split; [rewrite (splits_depth _ _ _ S1); exact Hd|].
      apply (trail_on_ws st i sp nl i1 Htr S1 Esp). intros _ t Ht. left. apply tr_nl; assumption.
    - destruct (header_pinv arr st i st1 i1 H HP Hne) as (H1 & H2 & H3 & H4). apply pinv_after; assumption.
    - destruct (keyval_pinv st i st1 i1 H HP Hne) as (H1 & H2 & H3 & H4). apply pinv_after; assumption.
  Qed.

  Lemma doc_line_pinv st i st1 i1 : doc_line st i = Ok st1 i1 -> pinv st i -> pinv st1 i1.
  Proof.
    intros H HP. pose proof (doc_line_nonempty _ _ _ _ H) as Hne. apply doc_line_read in H as (st0 & j1 & sp & Hr & H3 & ->).
    pose proof (line_read_pinv st i st0 j1 Hr HP Hne) as (Hs & Hi & Hd & Htr).
    pose proof H3 as H3'. apply span_inv in H3' as (u & _ & Esp).
    apply span_ws_inv in H3 as (w & Hw & Sw & _). destruct (isrc_splits s j1 _ i1 Hi Sw) as [Hi1 _].
    split; [apply sinv_on_ws, Hs|]. split; [exact Hi1|]. split; [rewrite (splits_depth _ _ _ Sw); exact Hd|].
    apply (trail_on_ws st0 j1 sp w i1 Htr Sw Esp). intros _ t Ht. left. apply tr_ws; assumption.
  Qed.

  Lemma doc_loop_pinv fuel st i st' i' : doc_loop fuel st i = Ok st' i' -> pinv st i -> pinv st' i'.
  Proof. apply (doc_loop_keeps (fun i st => pinv st i)). intros st0 j st1 j1. apply doc_line_pinv. Qed.

  (* ---- the document ----------------------------------------------------------------------------------------------------- *)
  Theorem parsed_slots d : parse_document s = POk d ->
    twl s true 0 0 (doc_root d) /\ t_dotted (doc_root d) = false /\ raw_ok SDocTrail (traw s (doc_trailing d)).
  Proof.
    intro H. destruct (parse_document_inv s d H) as (o & i1 & stw & i2 & stl & i3 & st' & Eb & Ew & El & Rend & Ef & ->). cbn [doc_root doc_trailing].
    assert (Hi1 : isrc s i1 /\ depth i1 = 0).
    { apply opt_inv in Eb as [(x & _ & Eb) | (_ & -> & _)]; [|split; [apply isrc_new|reflexivity]].
      apply lit_inv in Eb as [_ Sb]. split; [apply (isrc_splits s _ _ _ (isrc_new s) Sb)|rewrite (splits_depth _ _ _ Sb); reflexivity]. }
    destruct Hi1 as [Hi1 D1].
    assert (HP2 : pinv stw i2).
    { unfold parse_ws in Ew. apply pmap_inv in Ew as (sp & Ew & ->). pose proof Ew as Ew'. apply span_inv in Ew' as (uu & _ & Esp).
      apply span_ws_inv in Ew as (w & Hw & Sw & _). destruct (isrc_splits s i1 _ i2 Hi1 Sw) as [Hi2 _].
      split; [apply sinv_on_ws, sinv_new|]. split; [exact Hi2|]. split; [rewrite (splits_depth _ _ _ Sw); exact D1|].
      apply (trail_on_ws state_new i1 sp w i2 (trail_none state_new i1 Hi1 eq_refl) Sw Esp). intros _ t Ht. left. apply tr_ws; assumption. }
    pose proof (doc_loop_pinv _ _ _ _ _ El HP2) as (Hs & Hi3 & _ & (j0 & t & Hj0 & S0 & Ht & Hsp)).
    destruct (finalize_sinv s stl st' Ef Hs) as (Hr & Hrd & _ & Etr & _). split; [exact Hr|]. split; [exact Hrd|]. rewrite Etr.
    destruct (st_trailing stl) as [sp0|]; [|apply empty_raw_ok]. subst sp0.
    apply (span_raw_ok s SDocTrail j0 t i3 Hj0 S0). destruct Ht as [Ht|[_ Ht]]; [apply lines_doc_trail, trail_lines, Ht|apply dtrail_doc, Ht].
  Qed.
End PD.
