(* Proofs/NumbersRT_Int.v — C11, integers: the writer's text reads back as the same i64;
   nothing outside the i64 range ever comes out of `integer`. *)
From TV Require Import Base.Prelude Base.Utf8 Base.Winnow Gen.Consts Model.Datetime Model.Strings Model.Numbers Model.Write.
From TV Require Import Proofs.NumbersRT_Lex.
Require Import Lia ZifyBool ZifyN ZifyNat.

(* ---- decimal value of digit strings ------------------------------------------------------------ *)
(* the writer's loop: least significant digit first *)
Definition good_rev (l : bytes) (n : N) : Prop :=
  forallb is_digit (rev l) = true /\ dec_value (rev l) = n /\
  (n <> 0%N -> exists d tl, rev l = d :: tl /\ (49 <=? b2n d)%N = true).

Lemma n_digits_rev_good : forall fuel n, (n < 2 ^ N.of_nat fuel)%N -> good_rev (n_digits_rev fuel n) n.
Proof.
  unfold good_rev. induction fuel as [|fuel IH]; intros n Hn.
  - change (N.of_nat 0) with 0%N in Hn. assert (n = 0%N) by lia. subst. 
    cbn. repeat split. intro H; contradiction.
  - cbn [n_digits_rev]. destruct (n <? 10)%N eqn:E10.
    + assert (H10 : (n < 10)%N) by lia. cbn [rev app].
      repeat split.
      * cbn [forallb]. rewrite (digit_byte_is_digit _ H10). reflexivity.
      * unfold dec_value. cbn [dec_value_acc]. rewrite (digit_byte_digit_val _ H10). lia.
      * intro Hz. exists (digit_byte n), []. split; [reflexivity|]. rewrite (digit_byte_val _ H10). lia.
    + assert (H10 : (10 <= n)%N) by lia.
      assert (Hm : (n mod 10 < 10)%N) by (apply N.mod_lt; lia).
      assert (Hq : (n / 10 < 2 ^ N.of_nat fuel)%N).
      { rewrite Nat2N.inj_succ, N.pow_succ_r' in Hn.
        apply N.div_lt_upper_bound; lia. }
      destruct (IH _ Hq) as (G1 & G2 & G3).
      cbn [rev]. repeat split.
      * rewrite forallb_app, G1. cbn [forallb]. rewrite (digit_byte_is_digit _ Hm). reflexivity.
      * rewrite dec_value_snoc, G2, (digit_byte_digit_val _ Hm).
        pose proof (N.div_mod n 10 ltac:(lia)). lia.
      * intros _. destruct G3 as (d & tl & G3 & G4).
        { intro Hz. assert (n < 10)%N; [|lia].
          pose proof (N.div_mod n 10 ltac:(lia)). lia. }
        exists d, (tl ++ [digit_byte (n mod 10)]). rewrite G3. split; [reflexivity | exact G4].
Qed.

Lemma size_nat_gt n : (n < 2 ^ N.of_nat (N.size_nat n))%N.
Proof.
  destruct n as [|p]; [cbn; lia|]. cbn [N.size_nat].
  induction p as [p IH|p IH|].
  - cbn [Pos.size_nat]. rewrite Nat2N.inj_succ, N.pow_succ_r'. lia.
  - cbn [Pos.size_nat]. rewrite Nat2N.inj_succ, N.pow_succ_r'. lia.
  - cbn. lia.
Qed.

Lemma write_N_good n :
  forallb is_digit (write_N n) = true /\ dec_value (write_N n) = n /\
  (n <> 0%N -> exists d tl, write_N n = d :: tl /\ (49 <=? b2n d)%N = true).
Proof.
  unfold write_N. apply n_digits_rev_good.
  pose proof (size_nat_gt n) as H. rewrite Nat2N.inj_succ, N.pow_succ_r'. lia.
Qed.

(* ---- i64::from_str_radix on decimal digit strings ------------------------------------------------ *)
Lemma radix_digit_dec b : is_digit b = true -> radix_digit 10 b = Some (digit_val b).
Proof.
  intro H. unfold radix_digit, inr, digit_val. unfold is_digit in H.
  replace ((48 <=? b2n b)%N && (b2n b <=? 57)%N) with true by (symmetry; exact H).
  replace (b2n b - 48 <? 10)%N with true by lia. reflexivity.
Qed.

Lemma radix_value_dec s : forall acc, forallb is_digit s = true ->
  radix_value 10 acc s = Some (dec_value_acc acc s).
Proof.
  induction s as [|b s IH]; intros acc H; [reflexivity|].
  cbn [forallb] in H. apply andb_true_iff in H as [Hb Hs].
  cbn [radix_value dec_value_acc]. rewrite (radix_digit_dec _ Hb). apply IH, Hs.
Qed.

Definition not_us (b : byte) : bool := negb (byte_eqb b underscore).

Lemma remove_us_id s : forallb not_us s = true -> remove_us s = s.
Proof.
  induction s as [|b s IH]; [reflexivity|]. cbn [forallb]. intro H.
  apply andb_true_iff in H as [Hb Hs]. unfold remove_us. cbn [filter].
  unfold not_us in Hb. rewrite Hb. f_equal. apply IH, Hs.
Qed.

Lemma digit_not_us b : is_digit b = true -> not_us b = true.
Proof.
  unfold not_us. intro H. destruct (byte_eqb b underscore) eqn:E; [|reflexivity].
  apply byte_eqb_eq in E. subst. discriminate H.
Qed.
Lemma digit_not_sign b : is_digit b = true -> byte_eqb b plus = false /\ byte_eqb b dash = false.
Proof.
  intro H. split.
  - destruct (byte_eqb b plus) eqn:E; [apply byte_eqb_eq in E; subst; discriminate H | reflexivity].
  - destruct (byte_eqb b dash) eqn:E; [apply byte_eqb_eq in E; subst; discriminate H | reflexivity].
Qed.

Lemma us_tail_all d s : forallb d s = true -> us_tail d s = Some (length s).
Proof.
  intro H. rewrite <- (app_nil_r s) at 1. rewrite (us_tail_app d [] s (wf_tail_all _ _ H)).
  cbn [us_tail]. f_equal. lia.
Qed.

(* a decimal digit string without leading zero *)
Definition proper_digits (ds : bytes) : Prop :=
  forallb is_digit ds = true /\ exists d tl, ds = d :: tl /\ (49 <=? b2n d)%N = true.

Lemma ip_digits ip : proper_digits ip \/ ip = [x30] -> forallb is_digit ip = true /\ ip <> [].
Proof. intros [[H (d & tl & -> & _)] | ->]; split; auto; discriminate. Qed.

Lemma digits_DIGIT s : forallb is_digit s = true -> forallb (in_class DIGIT) s = true.
Proof. apply forallb_impl. intros x Hx. rewrite DIGIT_is_digit. exact Hx. Qed.

Lemma proper_head d : is_digit d = true -> (49 <=? b2n d)%N = true -> in_class DIGIT1_9 d = true.
Proof. unfold in_class, DIGIT1_9, is_digit. cbn [existsb fst snd]. lia. Qed.

(* what may follow a decimal digit run without extending it *)
Definition us_stop (r : bytes) : Prop :=
  match r with [] => True | b :: _ => in_class DIGIT b = false /\ byte_eqb underscore b = false end.

(* dec_int reads exactly  ["-"] ds  in front of such a continuation *)
Lemma dec_body_len_token ds r : proper_digits ds \/ ds = [x30] -> us_stop r ->
  dec_body_len (ds ++ r) = LOk (length ds).
Proof.
  intros [[Hall (d & tl & -> & Hd)] | ->] Hr; [|reflexivity].
  cbn [forallb] in Hall. apply andb_true_iff in Hall as [Hd0 Htl].
  cbn [app dec_body_len]. rewrite (proper_head d Hd0 Hd).
  rewrite (us_tail_app _ r _ (wf_tail_all _ _ (digits_DIGIT _ Htl))), (us_tail_stop _ r Hr).
  cbn [length]. f_equal. lia.
Qed.

Lemma dec_int_len_token sgn ds r :
  (sgn = [] \/ sgn = [dash]) -> proper_digits ds \/ ds = [x30] -> us_stop r ->
  dec_int_len ((sgn ++ ds) ++ r) = LOk (length (sgn ++ ds)).
Proof.
  intros Hs Hds Hr. pose proof (dec_body_len_token ds r Hds Hr) as EB.
  destruct Hs as [-> | ->]; cbn [app].
  - destruct (ip_digits ds Hds) as [Hall Hne]. destruct ds as [|b s]; [contradiction|].
    cbn [forallb] in Hall. apply andb_true_iff in Hall as [Hb _].
    cbn [app] in *. unfold dec_int_len, is_sign. destruct (digit_not_sign _ Hb) as [-> ->]. exact EB.
  - unfold dec_int_len. change (is_sign dash) with true. cbv iota. rewrite EB. reflexivity.
Qed.

Lemma i64_from_str_pos ds :
  forallb is_digit ds = true -> ds <> [] -> in_i64 (Z.of_N (dec_value ds)) = true ->
  i64_from_str_radix 10 ds = Some (Z.of_N (dec_value ds)).
Proof.
  intros Ha Hne Hr. unfold i64_from_str_radix.
  destruct ds as [|b t]; [contradiction|].
  assert (Hb : is_digit b = true) by (cbn [forallb] in Ha; apply andb_true_iff in Ha; tauto).
  destruct (digit_not_sign _ Hb) as [-> ->].
  rewrite (radix_value_dec _ 0%N Ha). fold (dec_value (b :: t)). rewrite Hr. reflexivity.
Qed.

Lemma i64_from_str_neg ds :
  forallb is_digit ds = true -> ds <> [] -> in_i64 (- Z.of_N (dec_value ds)) = true ->
  i64_from_str_radix 10 (dash :: ds) = Some (- Z.of_N (dec_value ds))%Z.
Proof.
  intros Ha Hne Hr. unfold i64_from_str_radix.
  change (byte_eqb dash plus) with false. change (byte_eqb dash dash) with true. cbv iota.
  destruct ds as [|b t]; [contradiction|].
  rewrite (radix_value_dec _ 0%N Ha). fold (dec_value (b :: t)). rewrite Hr. reflexivity.
Qed.

(* ---- C11_int_roundtrip, token level ------------------------------------------------------------ *)
Definition end_input (s : bytes) : input := mkIn [] (N.of_nat (length s)) 0.

Lemma advance_all s : advance (length s) (new_input s) = end_input s.
Proof.
  unfold advance, new_input, end_input. cbn [rest pos depth]. f_equal.
  rewrite <- (app_nil_r s) at 2. apply skipn_app_len.
Qed.

Lemma write_i64_shape z :
  (z = 0%Z /\ write_i64 z = [x30]) \/
  (exists ds, proper_digits ds /\
     ((0 < z)%Z /\ write_i64 z = ds /\ Z.of_N (dec_value ds) = z \/
      (z < 0)%Z /\ write_i64 z = dash :: ds /\ (- Z.of_N (dec_value ds))%Z = z)).
Proof.
  destruct z as [|p|p].
  - left. split; reflexivity.
  - right. destruct (write_N_good (Npos p)) as (G1 & G2 & G3).
    exists (write_N (Npos p)). split; [split; [exact G1 | apply G3; discriminate]|].
    left. cbn [write_i64]. rewrite G2. repeat split; lia.
  - right. destruct (write_N_good (Npos p)) as (G1 & G2 & G3).
    exists (write_N (Npos p)). split; [split; [exact G1 | apply G3; discriminate]|].
    right. cbn [write_i64]. rewrite G2. repeat split; lia.
Qed.

(* an optional minus and a digit string without leading zero that from_str_radix converts *)
Lemma integer_signed_digits sgn ds z :
  (sgn = [] \/ sgn = [dash]) -> proper_digits ds -> i64_from_str_radix 10 (sgn ++ ds) = Some z ->
  integer (new_input (sgn ++ ds)) = Ok z (end_input (sgn ++ ds)).
Proof.
  intros Hs Hp Hc. pose proof Hp as [Hall (d & tl & Hds & Hd)].
  assert (H0 : match sgn ++ ds with b :: _ => b <> x30 | [] => True end).
  { destruct Hs as [-> | ->]; cbn [app]; [|discriminate]. rewrite Hds. intro E. subst d. discriminate Hd. }
  assert (Hnu : forallb not_us (sgn ++ ds) = true).
  { rewrite forallb_app, (forallb_impl is_digit not_us ds digit_not_us Hall). destruct Hs as [-> | ->]; reflexivity. }
  pose proof (dec_int_len_token sgn ds [] Hs (or_introl Hp) I) as EL. rewrite app_nil_r in EL.
  rewrite integer_dec by exact H0. unfold and_then.
  pose proof (dec_int_spec (new_input (sgn ++ ds))) as L. cbn [new_input rest] in L. rewrite EL in L.
  fold (new_input (sgn ++ ds)) in L. rewrite L. cbn [new_input rest]. rewrite firstn_all.
  unfold dec_conv, int_of. rewrite (remove_us_id _ Hnu), Hc. fold (new_input (sgn ++ ds)). rewrite advance_all. reflexivity.
Qed.

Lemma integer_write_i64 z :
  in_i64 z = true ->
  integer (new_input (write_i64 z)) = Ok z (end_input (write_i64 z)).
Proof.
  intro Hz. destruct (write_i64_shape z) as [[-> ->] | (ds & Hp & H)].
  - vm_compute. reflexivity.
  - destruct (ip_digits ds (or_introl Hp)) as [Hall Hne].
    destruct H as [(_ & -> & Hv) | (_ & -> & Hv)]; subst z.
    + apply (integer_signed_digits [] ds); [auto|exact Hp|]. apply i64_from_str_pos; assumption.
    + apply (integer_signed_digits [dash] ds); [auto|exact Hp|]. apply i64_from_str_neg; assumption.
Qed.

(* ---- nothing outside i64 comes out of `integer` (no wrapping, no saturation) ---------------------- *)
Lemma i64_from_str_radix_range r s z : i64_from_str_radix r s = Some z -> in_i64 z = true.
Proof.
  unfold i64_from_str_radix.
  destruct (match s with
            | [] => (false, s)
            | b :: t => if byte_eqb b plus then (false, t) else if byte_eqb b dash then (true, t) else (false, s)
            end) as [neg ds].
  destruct ds as [|b t]; [discriminate|].
  destruct (radix_value r 0 (b :: t)) as [v|]; [|discriminate].
  destruct (in_i64 (if neg then (- Z.of_N v)%Z else Z.of_N v)) eqn:E; [|discriminate].
  intro H; injection H as <-. exact E.
Qed.

Lemma int_of_range r s z : int_of r s = TmOk z -> in_i64 z = true.
Proof.
  unfold int_of. destruct (i64_from_str_radix r (remove_us s)) as [v|] eqn:E; [|discriminate].
  intro H; injection H as <-. apply (i64_from_str_radix_range _ _ _ E).
Qed.

Lemma cut_try_map_range r p i z i' :
  cut_err (try_map (int_of r) p) i = Ok z i' -> in_i64 z = true.
Proof.
  unfold cut_err, try_map. destruct (p i) as [a j|e j|e j|st]; try discriminate.
  destruct (int_of r a) as [v|c|st] eqn:E; try discriminate.
  intro H; injection H as <- _. apply (int_of_range _ _ _ E).
Qed.

Lemma integer_range i z i' : integer i = Ok z i' -> in_i64 z = true.
Proof.
  unfold integer.
  destruct (bytes_eqb (firstn 2 (rest i)) [x30; x78]); [apply cut_try_map_range|].
  destruct (bytes_eqb (firstn 2 (rest i)) [x30; x6f]); [apply cut_try_map_range|].
  destruct (bytes_eqb (firstn 2 (rest i)) [x30; x62]); [apply cut_try_map_range|].
  unfold and_then. destruct (dec_int i) as [a j|e j|e j|st]; try discriminate.
  destruct (int_of 10 a) as [v|c|st] eqn:E; try discriminate.
  intro H; injection H as <- _. apply (int_of_range _ _ _ E).
Qed.

(* ---- C11_int_range: well-formed literals (TOML 1.0 integer grammar, written independently of
        the parser) whose value is outside i64 are refused, whatever follows them ------------------- *)
Inductive base : Set := B2 | B8 | B10 | B16.

Definition radix_of (bs : base) : N := match bs with B2 => 2 | B8 => 8 | B10 => 10 | B16 => 16 end%N.
(* digit classes of the grammar: bin 0-1, oct 0-7, dec 0-9, hex 0-9 A-F a-f *)
Definition base_class (bs : base) : bclass :=
  match bs with
  | B2 => [(48, 49)] | B8 => [(48, 55)] | B10 => [(48, 57)] | B16 => [(48, 57); (65, 70); (97, 102)]
  end%N.
Definition base_digit (bs : base) : byte -> bool := in_class (base_class bs).
Definition base_prefix (bs : base) : bytes :=
  match bs with B2 => [x30; x62] | B8 => [x30; x6f] | B16 => [x30; x78] | B10 => [] end.

(* value of one digit: '0'-'9' -> 0-9, 'A'-'F' -> 10-15, 'a'-'f' -> 10-15 *)
Definition digit_value (c : byte) : N :=
  let n := b2n c in
  if (n <=? 57)%N then (n - 48)%N else if (n <=? 70)%N then (n - 55)%N else (n - 87)%N.
(* value of a digit run with underscores: Horner over the digits *)
Definition run_value (radix : N) (s : bytes) : N :=
  fold_left (fun acc c => (acc * radix + digit_value c)%N) (remove_us s) 0%N.

(* optional sign of a decimal literal *)
Definition split_sign (t : bytes) : bool * bytes :=
  match t with
  | c :: u => if byte_eqb c plus then (false, u) else if byte_eqb c dash then (true, u) else (false, t)
  | [] => (false, t)
  end.

(* unsigned-dec-int = DIGIT / digit1-9 1*( DIGIT / underscore DIGIT ) *)
Definition wf_unsigned_dec (body : bytes) : bool :=
  match body with
  | d :: tl =>
    if byte_eqb d x30 then match tl with [] => true | _ => false end
    else in_class [(49, 57)%N] d && wf_tail (base_digit B10) tl
  | [] => false
  end.
(* prefix HEXDIG *( HEXDIG / underscore HEXDIG ) and the like *)
Definition wf_run (bs : base) (body : bytes) : bool :=
  match body with d :: tl => base_digit bs d && wf_tail (base_digit bs) tl | [] => false end.

Definition wf_lit (bs : base) (t : bytes) : bool :=
  match bs with
  | B10 => wf_unsigned_dec (snd (split_sign t))
  | _ => match strip_prefix (base_prefix bs) t with Some body => wf_run bs body | None => false end
  end.

Definition lit_value (bs : base) (t : bytes) : Z :=
  match bs with
  | B10 => let (neg, body) := split_sign t in
           if neg then (- Z.of_N (run_value 10 body))%Z else Z.of_N (run_value 10 body)
  | _ => match strip_prefix (base_prefix bs) t with
         | Some body => Z.of_N (run_value (radix_of bs) body)
         | None => 0%Z
         end
  end.

(* -- radix_value facts -- *)
Lemma radix_value_app r a : forall acc b,
  radix_value r acc (a ++ b) =
  match radix_value r acc a with Some x => radix_value r x b | None => None end.
Proof.
  induction a as [|c a IH]; intros acc b; [reflexivity|].
  cbn [app radix_value]. destruct (radix_digit r c); [apply IH | reflexivity].
Qed.

Lemma radix_value_mono r s : (1 <= r)%N -> forall acc v, radix_value r acc s = Some v -> (acc <= v)%N.
Proof.
  intro Hr. induction s as [|c s IH]; intros acc v H.
  - injection H as <-. lia.
  - cbn [radix_value] in H. destruct (radix_digit r c) as [d|]; [|discriminate].
    apply IH in H. nia.
Qed.

Lemma radix_digit_base bs c : base_digit bs c = true -> radix_digit (radix_of bs) c = Some (digit_value c).
Proof.
  unfold base_digit, in_class, radix_digit, inr, digit_value.
  destruct bs; cbn [base_class existsb fst snd radix_of]; intro H.
  - replace ((48 <=? b2n c)%N && (b2n c <=? 57)%N) with true by lia.
    replace (b2n c - 48 <? 2)%N with true by lia. replace (b2n c <=? 57)%N with true by lia. reflexivity.
  - replace ((48 <=? b2n c)%N && (b2n c <=? 57)%N) with true by lia.
    replace (b2n c - 48 <? 8)%N with true by lia. replace (b2n c <=? 57)%N with true by lia. reflexivity.
  - replace ((48 <=? b2n c)%N && (b2n c <=? 57)%N) with true by lia.
    replace (b2n c - 48 <? 10)%N with true by lia. replace (b2n c <=? 57)%N with true by lia. reflexivity.
  - destruct ((48 <=? b2n c)%N && (b2n c <=? 57)%N) eqn:E1.
    + replace (b2n c - 48 <? 16)%N with true by lia. replace (b2n c <=? 57)%N with true by lia. reflexivity.
    + destruct ((97 <=? b2n c)%N && (b2n c <=? 122)%N) eqn:E2.
      * replace (b2n c - 87 <? 16)%N with true by lia. replace (b2n c <=? 57)%N with false by lia.
        replace (b2n c <=? 70)%N with false by lia. reflexivity.
      * replace ((65 <=? b2n c)%N && (b2n c <=? 90)%N) with true by lia.
        replace (b2n c - 55 <? 16)%N with true by lia. replace (b2n c <=? 57)%N with false by lia.
        replace (b2n c <=? 70)%N with true by lia. reflexivity.
Qed.

Lemma radix_value_run bs s : forallb (base_digit bs) s = true -> forall acc,
  radix_value (radix_of bs) acc s
  = Some (fold_left (fun a c => (a * radix_of bs + digit_value c)%N) s acc).
Proof.
  induction s as [|c s IH]; intros H acc; [reflexivity|].
  cbn [forallb] in H. apply andb_true_iff in H as [Hc Hs].
  cbn [radix_value fold_left]. rewrite (radix_digit_base _ _ Hc). apply IH, Hs.
Qed.

Lemma remove_us_app a b : remove_us (a ++ b) = remove_us a ++ remove_us b.
Proof. apply filter_app. Qed.

Lemma remove_us_cons_keep c s : byte_eqb c underscore = false -> remove_us (c :: s) = c :: remove_us s.
Proof. intro H. unfold remove_us. cbn [filter]. rewrite H. reflexivity. Qed.

Lemma base_digit_not_us bs c : base_digit bs c = true -> byte_eqb c underscore = false.
Proof.
  intro H. destruct (byte_eqb c underscore) eqn:E; [|reflexivity].
  apply byte_eqb_eq in E. subst. destruct bs; discriminate H.
Qed.

Lemma wf_tail_digits bs s : wf_tail (base_digit bs) s = true -> forallb (base_digit bs) (remove_us s) = true.
Proof.
  induction s as [|b|b c s IH1 IH2] using bytes_ind2; intro H.
  - reflexivity.
  - rewrite wf_tail_cons in H. destruct (base_digit bs b) eqn:Eb.
    + rewrite (remove_us_cons_keep _ _ (base_digit_not_us _ _ Eb)). cbn. rewrite Eb. reflexivity.
    + destruct (byte_eqb underscore b); discriminate.
  - rewrite wf_tail_cons in H. destruct (base_digit bs b) eqn:Eb.
    + rewrite (remove_us_cons_keep _ _ (base_digit_not_us _ _ Eb)). cbn [forallb]. rewrite Eb. apply IH2, H.
    + destruct (byte_eqb underscore b) eqn:Eu; [|discriminate].
      apply byte_eqb_eq in Eu. subst b. apply andb_true_iff in H as [Hc Hs].
      change (remove_us (underscore :: c :: s)) with (remove_us (c :: s)).
      rewrite (remove_us_cons_keep _ _ (base_digit_not_us _ _ Hc)). cbn [forallb]. rewrite Hc. apply IH1, Hs.
Qed.

(* the parser's conversion refuses any text that extends a well-formed out-of-range run *)
Lemma radix_extend_none bs (d : byte) tl m (lo : N) :
  base_digit bs d = true -> wf_tail (base_digit bs) tl = true ->
  (lo <= run_value (radix_of bs) (d :: tl))%N ->
  match radix_value (radix_of bs) 0 (remove_us (d :: tl ++ m)) with
  | Some v => (lo <= v)%N
  | None => True
  end.
Proof.
  intros Hd Htl Hlo.
  change (d :: tl ++ m) with ((d :: tl) ++ m). rewrite remove_us_app, radix_value_app.
  assert (Hall : forallb (base_digit bs) (remove_us (d :: tl)) = true).
  { rewrite (remove_us_cons_keep _ _ (base_digit_not_us _ _ Hd)). cbn [forallb]. rewrite Hd.
    apply wf_tail_digits, Htl. }
  rewrite (radix_value_run _ _ Hall). fold (run_value (radix_of bs) (d :: tl)).
  destruct (radix_value (radix_of bs) (run_value (radix_of bs) (d :: tl)) (remove_us m)) as [v|] eqn:E; [|exact I].
  apply radix_value_mono in E; [lia | destruct bs; cbn; lia].
Qed.

Lemma base_digit_not_sign bs c : base_digit bs c = true -> byte_eqb c plus = false /\ byte_eqb c dash = false.
Proof.
  intro H. split.
  - destruct (byte_eqb c plus) eqn:E; [apply byte_eqb_eq in E; subst; destruct bs; discriminate H | reflexivity].
  - destruct (byte_eqb c dash) eqn:E; [apply byte_eqb_eq in E; subst; destruct bs; discriminate H | reflexivity].
Qed.

Lemma base_digit_ascii bs c : base_digit bs c = true -> ascii c = true.
Proof. unfold base_digit, in_class, ascii. destruct bs; cbn [base_class existsb fst snd]; lia. Qed.

Lemma i64_max_val : i64_max = 9223372036854775807%Z. Proof. reflexivity. Qed.
Lemma i64_min_val : i64_min = (-9223372036854775808)%Z. Proof. reflexivity. Qed.
Definition two63 : N := 9223372036854775808%N.

Lemma in_i64_false_pos v : (two63 <= v)%N -> in_i64 (Z.of_N v) = false.
Proof. unfold in_i64, two63. rewrite i64_max_val, i64_min_val. lia. Qed.

(* out of range stays out of range when the magnitude grows, with either sign *)
Lemma in_i64_out_mono (neg : bool) a v : (a <= v)%N ->
  in_i64 (if neg then (- Z.of_N a)%Z else Z.of_N a) = false ->
  in_i64 (if neg then (- Z.of_N v)%Z else Z.of_N v) = false.
Proof. unfold in_i64. rewrite i64_max_val, i64_min_val. destruct neg; lia. Qed.

(* an optional sign, then a well-formed run whose signed value is out of range, then anything *)
Lemma from_str_none bs (neg : bool) sgn d tl m :
  (sgn = [] /\ neg = false \/ sgn = [plus] /\ neg = false \/ sgn = [dash] /\ neg = true) ->
  base_digit bs d = true -> wf_tail (base_digit bs) tl = true ->
  in_i64 (if neg then (- Z.of_N (run_value (radix_of bs) (d :: tl)))%Z
          else Z.of_N (run_value (radix_of bs) (d :: tl))) = false ->
  i64_from_str_radix (radix_of bs) (remove_us (sgn ++ d :: tl ++ m)) = None.
Proof.
  intros Hs Hd Htl Hout.
  pose proof (radix_extend_none bs d tl m _ Hd Htl (N.le_refl _)) as H.
  pose proof (base_digit_not_us _ _ Hd) as Hus. destruct (base_digit_not_sign _ _ Hd) as [E1 E2].
  rewrite (remove_us_cons_keep _ _ Hus) in H.
  assert (Hv : match radix_value (radix_of bs) 0 (d :: remove_us (tl ++ m)) with
               | Some v => in_i64 (if neg then (- Z.of_N v)%Z else Z.of_N v) = false
               | None => True
               end).
  { destruct (radix_value _ 0 _) as [v|]; [|exact I]. exact (in_i64_out_mono neg _ v H Hout). }
  unfold i64_from_str_radix.
  destruct Hs as [[-> ->]|[[-> ->]|[-> ->]]]; cbn [app];
    rewrite ?(remove_us_cons_keep plus _ eq_refl), ?(remove_us_cons_keep dash _ eq_refl), (remove_us_cons_keep _ _ Hus).
  - rewrite E1, E2. destruct (radix_value _ 0 _) as [v|]; [rewrite Hv|]; reflexivity.
  - change (byte_eqb plus plus) with true. cbv iota.
    destruct (radix_value _ 0 _) as [v|]; [rewrite Hv|]; reflexivity.
  - change (byte_eqb dash plus) with false. change (byte_eqb dash dash) with true. cbv iota.
    destruct (radix_value _ 0 _) as [v|]; [rewrite Hv|]; reflexivity.
Qed.

Lemma from_str_unsigned_none bs d tl m :
  base_digit bs d = true -> wf_tail (base_digit bs) tl = true ->
  in_i64 (Z.of_N (run_value (radix_of bs) (d :: tl))) = false ->
  i64_from_str_radix (radix_of bs) (remove_us (d :: tl ++ m)) = None.
Proof. apply (from_str_none bs false []). auto. Qed.

Lemma firstn_run {A} (d : A) tl r n : firstn (S (length tl + n)) (d :: tl ++ r) = d :: tl ++ firstn n r.
Proof. cbn [firstn]. rewrite firstn_app_2. reflexivity. Qed.

(* prefixed literal: hex / oct / bin *)
Lemma prefixed_cut where_ bs prefix d tl r i :
  rest i = prefix ++ (d :: tl ++ r) ->
  base_digit bs d = true -> wf_tail (base_digit bs) tl = true ->
  in_i64 (Z.of_N (run_value (radix_of bs) (d :: tl))) = false ->
  is_cut (cut_err (try_map (int_of (radix_of bs)) (prefixed_int where_ prefix (one_of (base_digit bs)))) i).
Proof.
  intros Hr Hd Htl Hv.
  pose proof (prefixed_int_spec where_ prefix (base_digit bs) i _ Hr (base_digit_ascii bs)) as H.
  cbv beta iota in H. rewrite Hd in H. rewrite (us_tail_app _ r _ Htl) in H.
  unfold cut_err, try_map.
  destruct (us_tail (base_digit bs) r) as [n|].
  - rewrite H. rewrite firstn_run. unfold int_of.
    rewrite (from_str_unsigned_none bs d tl _ Hd Htl Hv). exact I.
  - destruct (prefixed_int where_ prefix (one_of (base_digit bs)) i); simpl in H; try contradiction. exact I.
Qed.

Lemma strip_prefix_some p t body : strip_prefix p t = Some body -> t = p ++ body.
Proof. apply strip_prefix_spec. Qed.

Theorem int_range_prefixed bs t r :
  bs <> B10 -> wf_lit bs t = true -> in_i64 (lit_value bs t) = false ->
  is_cut (integer (new_input (t ++ r))).
Proof.
  intros Hb Hwf Hout.
  destruct bs; try contradiction; unfold wf_lit, lit_value in *;
    (destruct (strip_prefix _ t) as [body|] eqn:Es; [|discriminate]);
    apply strip_prefix_some in Es; subst t;
    unfold wf_run in Hwf; (destruct body as [|d tl]; [discriminate|]);
    apply andb_true_iff in Hwf as [Hd Htl].
  - assert (Hr : rest (new_input ((base_prefix B2 ++ d :: tl) ++ r)) = BIN_PREFIX ++ (d :: tl ++ r)) by reflexivity.
    rewrite (integer_bin _ _ Hr). exact (prefixed_cut 13 B2 BIN_PREFIX d tl r _ Hr Hd Htl Hout).
  - assert (Hr : rest (new_input ((base_prefix B8 ++ d :: tl) ++ r)) = OCT_PREFIX ++ (d :: tl ++ r)) by reflexivity.
    rewrite (integer_oct _ _ Hr). exact (prefixed_cut 12 B8 OCT_PREFIX d tl r _ Hr Hd Htl Hout).
  - assert (Hr : rest (new_input ((base_prefix B16 ++ d :: tl) ++ r)) = HEX_PREFIX ++ (d :: tl ++ r)) by reflexivity.
    rewrite (integer_hex _ _ Hr). exact (prefixed_cut 11 B16 HEX_PREFIX d tl r _ Hr Hd Htl Hout).
Qed.

(* decimal literal *)
Lemma d19_not_zero d : in_class DIGIT1_9 d = true -> d <> x30.
Proof. intros H E. subst. discriminate H. Qed.
Lemma d19_not_sign d : in_class DIGIT1_9 d = true -> is_sign d = false.
Proof.
  intro H. unfold is_sign.
  destruct (byte_eqb d plus) eqn:E1; [apply byte_eqb_eq in E1; subst; discriminate H|].
  destruct (byte_eqb d dash) eqn:E2; [apply byte_eqb_eq in E2; subst; discriminate H|]. reflexivity.
Qed.

Lemma dec_cut sgn d tl r :
  (sgn = [] \/ sgn = [plus] \/ sgn = [dash]) ->
  in_class DIGIT1_9 d = true -> wf_tail (in_class DIGIT) tl = true ->
  (forall m, i64_from_str_radix 10 (remove_us (sgn ++ d :: tl ++ m)) = None) ->
  is_cut (integer (new_input (sgn ++ d :: tl ++ r))).
Proof.
  intros Hs Hd Htl Hnone.
  assert (Hfirst : match rest (new_input (sgn ++ d :: tl ++ r)) with b :: _ => b <> x30 | [] => True end).
  { cbn [new_input rest]. destruct Hs as [->|[->| ->]]; cbn [app]; [apply d19_not_zero, Hd | discriminate | discriminate]. }
  rewrite (integer_dec _ Hfirst). unfold and_then.
  pose proof (dec_int_spec (new_input (sgn ++ d :: tl ++ r))) as L. cbn [new_input rest] in L.
  fold (new_input (sgn ++ d :: tl ++ r)) in L.
  assert (EL : dec_int_len (sgn ++ d :: tl ++ r) =
               match us_tail (in_class DIGIT) r with
               | Some n => LOk (length sgn + S (length tl + n))
               | None => LCut
               end).
  { assert (EB : dec_body_len (d :: tl ++ r) =
                 match us_tail (in_class DIGIT) r with Some n => LOk (S (length tl + n)) | None => LCut end).
    { unfold dec_body_len. rewrite Hd, (us_tail_app _ r _ Htl). destruct (us_tail (in_class DIGIT) r); reflexivity. }
    destruct Hs as [->|[->| ->]]; cbn [app length plus].
    - unfold dec_int_len. rewrite (d19_not_sign _ Hd). exact EB.
    - unfold dec_int_len. change (is_sign plus) with true. cbv iota. rewrite EB.
      destruct (us_tail (in_class DIGIT) r); reflexivity.
    - unfold dec_int_len. change (is_sign dash) with true. cbv iota. rewrite EB.
      destruct (us_tail (in_class DIGIT) r); reflexivity. }
  rewrite EL in L.
  destruct (us_tail (in_class DIGIT) r) as [n|].
  - rewrite L.
    assert (EF : firstn (length sgn + S (length tl + n)) (sgn ++ d :: tl ++ r) = sgn ++ d :: tl ++ firstn n r).
    { rewrite firstn_app_2, firstn_run. reflexivity. }
    rewrite EF. unfold dec_conv, int_of. rewrite Hnone. exact I.
  - destruct (dec_int (new_input (sgn ++ d :: tl ++ r))); simpl in L; try contradiction. exact I.
Qed.

Theorem int_range_dec t r :
  wf_lit B10 t = true -> in_i64 (lit_value B10 t) = false ->
  is_cut (integer (new_input (t ++ r))).
Proof.
  unfold wf_lit, lit_value. intros Hwf Hout.
  assert (Hcase : exists neg sgn body, t = sgn ++ body /\ split_sign t = (neg, body) /\
                    (sgn = [] /\ neg = false \/ sgn = [plus] /\ neg = false \/ sgn = [dash] /\ neg = true)).
  { unfold split_sign. destruct t as [|c u]; [exists false, [], []; repeat split; auto|].
    destruct (byte_eqb c plus) eqn:E1.
    - apply byte_eqb_eq in E1. subst c. exists false, [plus], u. repeat split; auto.
    - destruct (byte_eqb c dash) eqn:E2.
      + apply byte_eqb_eq in E2. subst c. exists true, [dash], u. repeat split; auto.
      + exists false, [], (c :: u). repeat split; auto. }
  destruct Hcase as (neg & sgn & body & -> & Hsp & Hs). rewrite Hsp in Hwf, Hout. cbn [snd] in Hwf.
  unfold wf_unsigned_dec in Hwf. destruct body as [|d tl]; [discriminate|].
  destruct (byte_eqb d x30) eqn:E0.
  { exfalso. apply byte_eqb_eq in E0. subst d. destruct tl; [|discriminate].
    destruct Hs as [[_ ->]|[[_ ->]|[_ ->]]]; vm_compute in Hout; discriminate. }
  apply andb_true_iff in Hwf as [Hd Htl].
  rewrite <- app_assoc. cbn [app].
  apply dec_cut; [tauto | exact Hd | exact Htl |].
  intro m. exact (from_str_none B10 neg sgn d tl m Hs (DIGIT1_9_DIGIT _ Hd) Htl Hout).
Qed.

Theorem int_range bs t r :
  wf_lit bs t = true -> in_i64 (lit_value bs t) = false -> is_cut (integer (new_input (t ++ r))).
Proof.
  destruct bs.
  - apply int_range_prefixed; discriminate.
  - apply int_range_prefixed; discriminate.
  - apply int_range_dec.
  - apply int_range_prefixed; discriminate.
Qed.

(* the weaker form asked for as a minimum: plain decimal digit strings at or above 2^63 *)
Corollary int_range_digits ds r :
  forallb is_digit ds = true -> (exists d tl, ds = d :: tl /\ (49 <=? b2n d)%N = true) ->
  (two63 <= dec_value ds)%N -> is_cut (integer (new_input (ds ++ r))).
Proof.
  intros Hall (d & tl & -> & Hd) Hv.
  (* run_value on a digit string is dec_value: both are what radix_value computes *)
  assert (Hrun : run_value 10 (d :: tl) = dec_value (d :: tl)).
  { unfold run_value. rewrite (remove_us_id _ (forallb_impl _ _ _ digit_not_us Hall)).
    pose proof (radix_value_run B10 _ (digits_DIGIT _ Hall) 0%N) as E. cbn [radix_of] in E.
    rewrite (radix_value_dec _ 0%N Hall) in E. injection E as E. symmetry. exact E. }
  cbn [forallb] in Hall. apply andb_true_iff in Hall as [Hd0 Htl].
  pose proof (proper_head d Hd0 Hd) as H19. pose proof (digits_DIGIT tl Htl) as Hcls.
  apply (dec_cut [] d tl r); [auto | exact H19 | apply wf_tail_all, Hcls |].
  intro m. cbn [app].
  apply (from_str_unsigned_none B10 d tl m (DIGIT1_9_DIGIT _ H19) (wf_tail_all _ _ Hcls)), in_i64_false_pos.
  cbn [radix_of]. rewrite Hrun. exact Hv.
Qed.
