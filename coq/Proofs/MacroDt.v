(* Proofs/MacroDt.v — C19: a date-time written in toml!{}: the macro stringifies the tokens (a space between
   date and time becomes `T`) and calls `Datetime::from_str`; the TOML parser reads the original text with
   the document grammar.  Both give the same value: C12 (`agree`: the two parsers compute the same
   function) plus "the standalone parser treats the delimiters T, t and space alike". *)
From TV Require Import Base.Prelude Model.Datetime Model.DatetimeStd Model.Macro Spec.MacroSpec.
From TV Require Import Proofs.DatetimeEq Proofs.MacroMatch Proofs.MacroTails Proofs.MacroStmt.
Require Import Lia.

(* ---- bytes ---- *)
Definition dod (b : byte) : bool := is_digit b || byte_eqb b dash.        (* digit or dash *)
Definition is_delim (b : byte) : bool := byte_eqb b x54 || byte_eqb b x74 || byte_eqb b x20.

Lemma dod_not_colon : forall b, dod b = true -> byte_eqb b colon = false.
Proof. intros b H. exact (byte_eqb_apart dod b colon H eq_refl). Qed.
Lemma dod_not_delim : forall b, dod b = true -> is_delim b = false.
Proof. intros b H. unfold is_delim. rewrite (byte_eqb_apart dod b x54 H eq_refl), (byte_eqb_apart dod b x74 H eq_refl), (byte_eqb_apart dod b x20 H eq_refl).
  reflexivity. Qed.
Lemma delim_not_dod : forall b, is_delim b = true -> dod b = false.
Proof. intros b H. destruct (dod b) eqn:E; [|reflexivity]. rewrite (dod_not_delim b E) in H. discriminate H. Qed.
Lemma digit_dod : forall b, is_digit b = true -> dod b = true.
Proof. intros b H. unfold dod. rewrite H. reflexivity. Qed.

(* ---- the date parser reads digits and dashes, and looks at nothing else ---- *)
(* `dlocal p`: what p consumes is made of digits and dashes, and p does the same whatever follows that *)
Definition dlocal {A} (p : sp A) : Prop :=
  forall s a r, p s = Some (a, r) ->
  exists pre, s = pre ++ r /\ forallb dod pre = true /\ forall r', p (pre ++ r') = Some (a, r').

Lemma dlocal_ret : forall {A} (a : A), dlocal (sret a).
Proof. intros A a s a' r H. injection H as <- <-. exists []. repeat split. Qed.
Lemma dlocal_fail : forall {A}, dlocal (@sfail A).
Proof. intros A s a r H. discriminate H. Qed.
Lemma dlocal_if : forall {A} (b : bool) (p q : sp A), dlocal p -> dlocal q -> dlocal (if b then p else q).
Proof. intros A [|] p q Hp Hq; assumption. Qed.

Lemma dlocal_digit : dlocal sdigit.
Proof.
  intros [|b s] n r H; [discriminate|]. unfold sdigit in *. destruct (is_digit b) eqn:E; [|discriminate].
  injection H as <- <-. exists [b]. cbn [app forallb]. rewrite (digit_dod b E), E. repeat split.
Qed.

Lemma dlocal_dash : dlocal (sexpect dash).
Proof.
  intros [|b s] u r H; [discriminate|]. unfold sexpect in *. destruct (byte_eqb b dash) eqn:E; [|discriminate].
  apply byte_eqb_eq in E. subst b. injection H as <- <-. exists [dash]. repeat split.
Qed.

Lemma dlocal_bind : forall {A B} (p : sp A) (f : A -> sp B), dlocal p -> (forall a, dlocal (f a)) -> dlocal (sbind p f).
Proof.
  intros A B p f Hp Hf s b r H. unfold sbind in *.
  destruct (p s) as [[a r1]|] eqn:E1; [|discriminate].
  destruct (Hp s a r1 E1) as [pre1 [-> [D1 R1]]]. destruct (Hf a r1 b r H) as [pre2 [-> [D2 R2]]].
  exists (pre1 ++ pre2). rewrite forallb_app, D1, D2, <- app_assoc. repeat split.
  intro r'. rewrite <- app_assoc, R1. apply R2.
Qed.

Lemma dlocal_two : dlocal two.
Proof. unfold two. do 2 (apply dlocal_bind; [exact dlocal_digit|intro]). apply dlocal_ret. Qed.

Lemma std_date_prefix : dlocal std_date.
Proof.
  unfold std_date. do 4 (apply dlocal_bind; [exact dlocal_digit|intro]).
  apply dlocal_bind; [exact dlocal_dash|intros _]. apply dlocal_bind; [exact dlocal_two|intro m].
  apply dlocal_bind; [exact dlocal_dash|intros _]. apply dlocal_bind; [exact dlocal_two|intro d].
  cbv zeta. do 2 (apply dlocal_if; [exact dlocal_fail|]). apply dlocal_ret.
Qed.

(* ---- aligning  A ++ c :: B  with  a ++ r  when c cannot occur in a ---- *)
Lemma app_align : forall (a A : bytes) c B r, A ++ c :: B = a ++ r -> forallb dod a = true -> dod c = false ->
  exists A', A = a ++ A' /\ r = A' ++ c :: B.
Proof.
  induction a as [|x a IH]; intros A c B r H Ha Hc.
  - exists A. split; [reflexivity|]. cbn [app] in H. symmetry. exact H.
  - cbn [forallb] in Ha. apply andb_true_iff in Ha as [Hx Ha].
    destruct A as [|y A].
    + cbn [app] in H. injection H as -> _. rewrite Hx in Hc. discriminate.
    + cbn [app] in H. injection H as -> H. destruct (IH A c B r H Ha Hc) as [A' [-> ->]]. exists A'. split; reflexivity.
Qed.

Lemma std_tail_delim : forall dt c1 c2 B, is_delim c1 = true -> is_delim c2 = true ->
  std_tail dt (c1 :: B) = std_tail dt (c2 :: B).
Proof.
  intros dt c1 c2 B H1 H2. unfold std_tail, sbind, speek. cbv beta iota.
  unfold is_delim in *. rewrite H1, H2. unfold snext. reflexivity.
Qed.

Lemma std_tail_dod : forall dt b X, dod b = true -> std_tail dt (b :: X) = Some (mkDT (Some dt) None None, b :: X).
Proof.
  intros dt b X H. unfold std_tail, sbind, speek. cbv beta iota.
  pose proof (dod_not_delim b H) as Hd. unfold is_delim in Hd. rewrite Hd. reflexivity.
Qed.

Theorem std_delim_swap : forall A B c1 c2 dv, 3 <= List.length A -> forallb dod A = true ->
  is_delim c1 = true -> is_delim c2 = true ->
  std_from_str (A ++ c1 :: B) = Some dv -> std_from_str (A ++ c2 :: B) = Some dv.
Proof.
  intros A B c1 c2 dv Hlen HA H1 H2 H.
  destruct A as [|a0 [|a1 [|a2 A3]]]; cbn [List.length] in Hlen; try lia.
  assert (Ha2 : dod a2 = true).
  { cbn [forallb] in HA. apply andb_true_iff in HA as [_ HA]. apply andb_true_iff in HA as [_ HA].
    apply andb_true_iff in HA as [HA _]. exact HA. }
  cbn [app] in *. rewrite std_from_str_3 in *. rewrite (dod_not_colon a2 Ha2) in *.
  change (a0 :: a1 :: a2 :: A3 ++ c1 :: B) with ((a0 :: a1 :: a2 :: A3) ++ c1 :: B) in H.
  change (a0 :: a1 :: a2 :: A3 ++ c2 :: B) with ((a0 :: a1 :: a2 :: A3) ++ c2 :: B).
  set (A := a0 :: a1 :: a2 :: A3) in *.
  destruct (std_date (A ++ c1 :: B)) as [[dt r1]|] eqn:Ed; [|discriminate].
  destruct (std_date_prefix _ _ _ Ed) as [a [Es [Hdod Hre]]].
  destruct (app_align a A c1 B r1 Es Hdod (delim_not_dod c1 H1)) as [A' [EA ->]].
  destruct A' as [|b A''].
  - rewrite app_nil_r in EA. rewrite EA. rewrite (Hre (c2 :: B)).
    cbn [app] in H. rewrite (std_tail_delim dt c2 c1 B H2 H1). exact H.
  - exfalso. assert (Hb : dod b = true).
    { rewrite EA in HA. rewrite forallb_app in HA. apply andb_true_iff in HA as [_ HA]. cbn [forallb] in HA.
      apply andb_true_iff in HA as [HA _]. exact HA. }
    cbn [app] in H. rewrite (std_tail_dod dt b _ Hb) in H. discriminate H.
Qed.

(* ---- what the macro stringifies ---- *)
Lemma digits_dod : forall s, digits_ok s = true -> forallb dod s = true /\ 1 <= List.length s.
Proof.
  intros [|b s] H; [discriminate|]. unfold digits_ok in H. split; [|cbn; lia].
  revert H. generalize (b :: s). intro l. induction l as [|x l IH]; intro H; [reflexivity|].
  cbn [forallb] in *. apply andb_true_iff in H as [Hx Hl]. rewrite (digit_dod x Hx). apply IH. exact Hl.
Qed.

Definition norm_delim (c : byte) : byte := if byte_eqb c c_space then x54 else c.

Lemma stringify_norm : forall d, dt_ok d = true ->
  flat_map tt_stringify (dt_norm_toks d)
  = match ds_date d, ds_time d with
    | Some dd, Some t => date_text dd ++ [norm_delim (ds_delim d)] ++ time_text t ++ off_text (ds_off d)
    | _, _ => dt_text d
    end.
Proof.
  intros [date delim time off] H. unfold dt_ok in H. unfold dt_norm_toks, dt_toks, dt_text, norm_delim.
  cbn [ds_date ds_time ds_delim ds_off] in *.
  destruct date as [[[y m] dd]|]; destruct time as [[[[hh mi] ss] fr]|]; try discriminate H.
  - apply andb_true_iff in H as [_ Hoff]. unfold time_toks, sec_tok, date_text, time_text.
    destruct (byte_eqb delim c_space); destruct fr as [f|]; destruct off as [|c|neg oh om];
      cbn [off_ok] in Hoff; try (apply andb_true_iff in Hoff as [Hoff _]; apply andb_true_iff in Hoff as [Hneg _]; subst neg);
      change id_T with [x54];
      cbn [off_toks off_text app flat_map tt_stringify]; repeat rewrite app_nil_r;
      repeat (progress (repeat rewrite <- app_assoc; cbn [app])); reflexivity.
  - unfold date_text. cbn [flat_map tt_stringify app]. repeat rewrite <- app_assoc. cbn [app]. rewrite app_nil_r. reflexivity.
  - apply andb_true_iff in H as [_ Hoff]. destruct off; try discriminate Hoff.
    unfold time_toks, sec_tok, time_text. destruct fr as [f|];
      cbn [off_toks off_text app flat_map tt_stringify]; repeat rewrite <- app_assoc; cbn [app]; repeat rewrite app_nil_r; reflexivity.
Qed.

Lemma dt_norm_nonempty : forall d, dt_ok d = true -> dt_norm_toks d <> [].
Proof. intros d H. destruct (dt_toks_skel d H) as [k [e Hsk]]. exact (proj1 (proj2 (proj2 (skel_facts _ _ _ _ Hsk)))). Qed.

Theorem dt_agree : forall d dv, dt_ok d = true -> doc_datetime (dt_text d) = Some dv ->
  datetime_value (dt_norm_toks d) = EOk (MDatetime dv).
Proof.
  intros d dv Hok Hdoc. rewrite <- agree in Hdoc.
  unfold datetime_value. pose proof (dt_norm_nonempty d Hok) as Hne.
  destruct (dt_norm_toks d) as [|t0 ts] eqn:Et; [contradiction|]. rewrite <- Et. clear Et Hne.
  rewrite (stringify_norm d Hok).
  destruct d as [date delim time off]. unfold dt_text in *. unfold dt_ok in Hok. cbn [ds_date ds_time ds_delim ds_off] in *.
  destruct date as [[[y m] dd]|]; destruct time as [[[[hh mi] ss] fr]|]; try (rewrite Hdoc; reflexivity).
  unfold norm_delim. destruct (byte_eqb delim c_space) eqn:Ed; [|rewrite Hdoc; reflexivity].
  apply byte_eqb_eq in Ed. subst delim.
  apply andb_true_iff in Hok as [Hok _]. apply andb_true_iff in Hok as [Hok _]. apply andb_true_iff in Hok as [Hdate _].
  unfold date_ok_sp in Hdate. apply andb_true_iff in Hdate as [Hdate Hd3]. apply andb_true_iff in Hdate as [Hd1 Hd2].
  destruct (digits_dod y Hd1) as [Y1 Y2]. destruct (digits_dod m Hd2) as [M1 M2]. destruct (digits_dod dd Hd3) as [D1 D2].
  cbn [app] in *.
  rewrite (std_delim_swap (date_text (y, m, dd)) (time_text (hh, mi, ss, fr) ++ off_text off) c_space x54 dv); try reflexivity; try exact Hdoc.
  - unfold date_text. rewrite !app_length. cbn [List.length]. clear - Y2. lia.
  - unfold date_text. rewrite !forallb_app. cbn [forallb]. rewrite Y1, M1, D1. reflexivity.
Qed.
