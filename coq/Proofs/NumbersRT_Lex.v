(* Proofs/NumbersRT_Lex.v — what the digit-run lexers of parser/numbers.rs consume.
   `us_tail d s` is the length of the run `*( d / "_" d )` at the head of s (None: an underscore
   is not followed by a digit, where the grammar commits with cut_err).  The lemmas below say
   that the mini-winnow transcriptions compute exactly that. *)
From TV Require Import Base.Prelude Base.Utf8 Base.Winnow Gen.Consts Model.Datetime Model.Strings Model.Numbers.
From TV Require Export Base.BytesFacts Base.ListFacts Base.Utf8Facts.
Require Import Lia ZifyBool ZifyN ZifyNat.

(* ---- inputs -------------------------------------------------------------------------------- *)
Lemma advance_0 i : advance 0 i = i.
Proof. destruct i as [s p d]. unfold advance; cbn [rest pos depth skipn]. f_equal. lia. Qed.

Lemma advance_advance a b i : advance a (advance b i) = advance (b + a) i.
Proof.
  destruct i as [s p d]. unfold advance; cbn [rest pos depth]. f_equal; [apply skipn_add | lia].
Qed.

Lemma rest_advance n i : rest (advance n i) = skipn n (rest i).
Proof. reflexivity. Qed.
Lemma pos_advance n i : pos (advance n i) = (pos i + N.of_nat n)%N.
Proof. reflexivity. Qed.
Lemma depth_advance n i : depth (advance n i) = depth i.
Proof. reflexivity. Qed.

Lemma pos_advance_sub n i : N.to_nat (pos (advance n i) - pos i) = n.
Proof. rewrite pos_advance. lia. Qed.

(* ---- result shapes ------------------------------------------------------------------------- *)
Definition is_cut {A} (r : res A) : Prop := match r with Cut _ _ => True | _ => False end.
Definition is_bt {A} (r : res A) : Prop := match r with Bt _ _ => True | _ => False end.
Definition is_err {A} (r : res A) : Prop := match r with Bt _ _ | Cut _ _ => True | _ => False end.
Definition is_ok {A} (r : res A) : Prop := match r with Ok _ _ => True | _ => False end.

Lemma is_cut_err {A} (r : res A) : is_cut r -> is_err r.
Proof. destruct r; simpl; auto. Qed.
Lemma is_bt_err {A} (r : res A) : is_bt r -> is_err r.
Proof. destruct r; simpl; auto. Qed.
Lemma is_err_not_ok {A} (r : res A) : is_err r -> forall a i, r <> Ok a i.
Proof. destruct r; simpl; intros H a' i' E; try discriminate; contradiction. Qed.

(* ---- ASCII text is valid UTF-8 -------------------------------------------------------------- *)
Definition ascii (b : byte) : bool := (b2n b <=? 127)%N.

Lemma ascii_utf8 s : forallb ascii s = true -> utf8_valid_b s = true.
Proof. exact (utf8_ascii s). Qed.

(* ---- the digit-run scanner -------------------------------------------------------------------- *)
Fixpoint us_tail (d : byte -> bool) (s : bytes) : option nat :=
  match s with
  | [] => Some 0
  | b :: s' =>
    if d b then match us_tail d s' with Some n => Some (S n) | None => None end
    else if byte_eqb underscore b then
      match s' with
      | c :: s'' => if d c then match us_tail d s'' with Some n => Some (S (S n)) | None => None end
                    else None
      | [] => None
      end
    else Some 0
  end.

Lemma bytes_ind2 (P : bytes -> Prop) :
  P [] -> (forall b, P [b]) -> (forall b c s, P s -> P (c :: s) -> P (b :: c :: s)) -> forall s, P s.
Proof.
  intros H0 H1 H2.
  assert (H : forall s, P s /\ forall b, P (b :: s)).
  { induction s as [|c s [IH1 IH2]]; split; auto. }
  intro s; apply H.
Qed.

Lemma us_tail_cons d b s :
  us_tail d (b :: s) =
  if d b then match us_tail d s with Some n => Some (S n) | None => None end
  else if byte_eqb underscore b then
    match s with
    | c :: s'' => if d c then match us_tail d s'' with Some n => Some (S (S n)) | None => None end else None
    | [] => None
    end
  else Some 0.
Proof. reflexivity. Qed.

Lemma us_tail_le d s : forall n, us_tail d s = Some n -> n <= length s.
Proof.
  induction s as [|b|b c s IH1 IH2] using bytes_ind2; intros n H.
  - injection H as <-. auto.
  - cbn [us_tail] in H. destruct (d b); [injection H as <-; auto|].
    destruct (byte_eqb underscore b); [discriminate | injection H as <-; cbn; lia].
  - rewrite us_tail_cons in H. destruct (d b).
    + destruct (us_tail d (c :: s)) as [m|] eqn:E; [|discriminate].
      injection H as <-. specialize (IH2 _ eq_refl). cbn [length] in *. lia.
    + destruct (byte_eqb underscore b); [|injection H as <-; cbn; lia].
      destruct (d c); [|discriminate].
      destruct (us_tail d s) as [m|] eqn:E; [|discriminate]. injection H as <-.
      specialize (IH1 _ eq_refl). cbn [length]. lia.
Qed.

(* one iteration of `repeat(0.., alt((d.void(), (one_of(b'_'), cut_err(d).context(..)).void())))` *)
Definition us_step (d : byte -> bool) : parser unit :=
  pvoid (one_of d) <|> (byte_ underscore ;;; pvoid (context (cut_err (one_of d)))).

Lemma us_step_spec d i :
  us_step d i =
  match rest i with
  | b :: tl =>
    if d b then Ok tt (advance 1 i)
    else if byte_eqb underscore b then
      match tl with
      | c :: _ => if d c then Ok tt (advance 2 i) else Cut (mkErr None true) (advance 1 i)
      | [] => Cut (mkErr None true) (advance 1 i)
      end
    else Bt err0 i
  | [] => Bt err0 i
  end.
Proof.
  unfold us_step, alt, pvoid, pmap, bind, byte_, context, cut_err, one_of.
  destruct (rest i) as [|b tl] eqn:Hr; [reflexivity|].
  destruct (d b) eqn:Hd; [reflexivity|].
  destruct (byte_eqb underscore b) eqn:Hu; [|reflexivity].
  rewrite rest_advance, Hr. cbn [skipn].
  destruct tl as [|c tl]; [reflexivity|].
  destruct (d c); [|reflexivity].
  rewrite advance_advance. reflexivity.
Qed.

Lemma repeat_us d : forall fuel i acc,
  length (rest i) < fuel ->
  match us_tail d (rest i) with
  | Some n => exists l, repeat0_f fuel (us_step d) acc i = Ok l (advance n i)
  | None => is_cut (repeat0_f fuel (us_step d) acc i)
  end.
Proof.
  induction fuel as [|fuel IH]; intros i acc Hf; [lia|].
  cbn [repeat0_f]. rewrite us_step_spec.
  destruct (rest i) as [|b tl] eqn:Hr.
  - cbn [us_tail]. rewrite advance_0. eauto.
  - rewrite us_tail_cons. destruct (d b) eqn:Hd.
    + rewrite rest_advance, Hr. cbn [skipn length].
      replace (Nat.eqb (length tl) (S (length tl))) with false by (symmetry; apply Nat.eqb_neq; lia).
      specialize (IH (advance 1 i) (tt :: acc)).
      rewrite rest_advance, Hr in IH. cbn [skipn] in IH. cbn [length] in Hf.
      specialize (IH ltac:(lia)).
      destruct (us_tail d tl) as [n|].
      * destruct IH as [l IH]. exists l. rewrite IH, advance_advance. reflexivity.
      * exact IH.
    + destruct (byte_eqb underscore b) eqn:Hu.
      * destruct tl as [|c tl]; [exact I|].
        destruct (d c) eqn:Hc; [|exact I].
        rewrite rest_advance, Hr. cbn [skipn length].
        replace (Nat.eqb (length tl) (S (S (length tl)))) with false by (symmetry; apply Nat.eqb_neq; lia).
        specialize (IH (advance 2 i) (tt :: acc)).
        rewrite rest_advance, Hr in IH. cbn [skipn] in IH. cbn [length] in Hf.
        specialize (IH ltac:(lia)).
        destruct (us_tail d tl) as [n|].
        -- destruct IH as [l IH]. exists l. rewrite IH, advance_advance. reflexivity.
        -- exact IH.
      * rewrite advance_0. eauto.
Qed.

(* digits_us (one_of first) (one_of d) *)
Lemma digits_us_spec first d i :
  match rest i with
  | b :: tl =>
    if first b then
      match us_tail d tl with
      | Some n => digits_us (one_of first) (one_of d) i = Ok tt (advance (S n) i)
      | None => is_cut (digits_us (one_of first) (one_of d) i)
      end
    else digits_us (one_of first) (one_of d) i = Bt err0 i
  | [] => digits_us (one_of first) (one_of d) i = Bt err0 i
  end.
Proof.
  assert (E : digits_us (one_of first) (one_of d) i =
              match rest i with
              | b :: tl => if first b then pvoid (repeat0 (us_step d)) (advance 1 i) else Bt err0 i
              | [] => Bt err0 i
              end).
  { unfold digits_us. fold (us_step d). unfold bind, one_of.
    destruct (rest i) as [|b tl]; [reflexivity|]. destruct (first b); reflexivity. }
  rewrite E. clear E.
  destruct (rest i) as [|b tl] eqn:Hr; [reflexivity|].
  destruct (first b); [|reflexivity].
  unfold pvoid, pmap, repeat0.
  pose proof (repeat_us d (S (length (rest (advance 1 i)))) (advance 1 i) [] ltac:(lia)) as H.
  rewrite rest_advance, Hr in H. cbn [skipn] in H.
  rewrite rest_advance, Hr. cbn [skipn].
  destruct (us_tail d tl) as [n|].
  - destruct H as [l H]. rewrite H, advance_advance. reflexivity.
  - destruct (repeat0_f _ _ _ _); simpl in H; try contradiction. exact I.
Qed.

(* the consumed run is made of d-bytes and underscores *)
Lemma us_tail_forall (P : byte -> bool) d s :
  (forall b, d b = true -> P b = true) -> P underscore = true ->
  forall n, us_tail d s = Some n -> forallb P (firstn n s) = true.
Proof.
  intros Hd Hu.
  induction s as [|b|b c s IH1 IH2] using bytes_ind2; intros n H.
  - injection H as <-. reflexivity.
  - rewrite us_tail_cons in H. destruct (d b) eqn:Eb.
    + cbn [us_tail] in H. injection H as <-. cbn. rewrite (Hd _ Eb). reflexivity.
    + destruct (byte_eqb underscore b); [discriminate | injection H as <-; reflexivity].
  - rewrite us_tail_cons in H. destruct (d b) eqn:Eb.
    + destruct (us_tail d (c :: s)) as [m|] eqn:E; [|discriminate]. injection H as <-.
      cbn [firstn forallb]. rewrite (Hd _ Eb), (IH2 _ eq_refl). reflexivity.
    + destruct (byte_eqb underscore b) eqn:Eu; [|injection H as <-; reflexivity].
      apply byte_eqb_eq in Eu. subst b.
      destruct (d c) eqn:Ec; [|discriminate].
      destruct (us_tail d s) as [m|] eqn:E; [|discriminate]. injection H as <-.
      cbn [firstn forallb]. rewrite Hu, (Hd _ Ec), (IH1 _ eq_refl). reflexivity.
Qed.

(* ---- byte classes (generated constants) ------------------------------------------------------ *)
Definition is_sign (b : byte) : bool := byte_eqb b plus || byte_eqb b dash.

Lemma DIGIT_is_digit b : in_class DIGIT b = is_digit b.
Proof. unfold in_class, DIGIT, is_digit. cbn [existsb fst snd]. apply orb_false_r. Qed.
Lemma DT_DIGIT_is_digit b : in_class DT_DIGIT b = is_digit b.
Proof. unfold in_class, DT_DIGIT, is_digit. cbn [existsb fst snd]. apply orb_false_r. Qed.
Lemma DIGIT_ascii b : in_class DIGIT b = true -> ascii b = true.
Proof. unfold in_class, DIGIT, ascii. cbn [existsb fst snd]. lia. Qed.
Lemma DIGIT1_9_DIGIT b : in_class DIGIT1_9 b = true -> in_class DIGIT b = true.
Proof. unfold in_class, DIGIT, DIGIT1_9. cbn [existsb fst snd]. lia. Qed.
Lemma DIGIT0_7_ascii b : in_class DIGIT0_7 b = true -> ascii b = true.
Proof. unfold in_class, DIGIT0_7, ascii. cbn [existsb fst snd]. lia. Qed.
Lemma DIGIT0_1_ascii b : in_class DIGIT0_1 b = true -> ascii b = true.
Proof. unfold in_class, DIGIT0_1, ascii. cbn [existsb fst snd]. lia. Qed.
Lemma HEXDIG_ascii b : in_class HEXDIG b = true -> ascii b = true.
Proof. unfold in_class, HEXDIG, ascii. cbn [existsb fst snd]. lia. Qed.
Lemma sign_ascii b : is_sign b = true -> ascii b = true.
Proof.
  unfold is_sign. intro H. apply orb_true_iff in H as [H|H]; apply byte_eqb_eq in H; subst; reflexivity.
Qed.

(* ---- dec_int ------------------------------------------------------------------------------- *)
Inductive lexres : Set := LOk (n : nat) | LBt | LCut.

Definition dec_body_len (s : bytes) : lexres :=
  match s with
  | b :: tl =>
    if in_class DIGIT1_9 b
    then match us_tail (in_class DIGIT) tl with Some n => LOk (S n) | None => LCut end
    else if in_class DIGIT b then LOk 1 else LBt
  | [] => LBt
  end.
Definition dec_int_len (s : bytes) : lexres :=
  match s with
  | b :: tl => if is_sign b then match dec_body_len tl with LOk n => LOk (S n) | r => r end
               else dec_body_len s
  | [] => LBt
  end.

Definition dec_body : parser unit :=
  digits_us (one_of (in_class DIGIT1_9)) digit <|> pvoid digit.

Lemma dec_body_spec i :
  match dec_body_len (rest i) with
  | LOk n => dec_body i = Ok tt (advance n i)
  | LBt => is_bt (dec_body i)
  | LCut => is_cut (dec_body i)
  end.
Proof.
  unfold dec_body, alt, digit.
  pose proof (digits_us_spec (in_class DIGIT1_9) (in_class DIGIT) i) as H.
  unfold dec_body_len. destruct (rest i) as [|b tl] eqn:Hr.
  - rewrite H. unfold pvoid, pmap, one_of. rewrite Hr. exact I.
  - destruct (in_class DIGIT1_9 b) eqn:E19.
    + destruct (us_tail (in_class DIGIT) tl) as [n|].
      * rewrite H. reflexivity.
      * destruct (digits_us _ _ i); simpl in H; try contradiction. exact I.
    + rewrite H. unfold pvoid, pmap, one_of. rewrite Hr.
      destruct (in_class DIGIT b); [reflexivity | exact I].
Qed.

Lemma dec_body_len_ascii s n :
  dec_body_len s = LOk n -> forallb ascii (firstn n s) = true.
Proof.
  unfold dec_body_len. destruct s as [|b tl]; [discriminate|].
  destruct (in_class DIGIT1_9 b) eqn:E19.
  - destruct (us_tail (in_class DIGIT) tl) as [m|] eqn:E; [|discriminate].
    intro H; injection H as <-. cbn [firstn forallb].
    rewrite (DIGIT_ascii _ (DIGIT1_9_DIGIT _ E19)).
    apply (us_tail_forall ascii _ _ DIGIT_ascii eq_refl _ E).
  - destruct (in_class DIGIT b) eqn:Ed; [|discriminate].
    intro H; injection H as <-. cbn. rewrite (DIGIT_ascii _ Ed). reflexivity.
Qed.

Lemma dec_int_len_ascii s n :
  dec_int_len s = LOk n -> forallb ascii (firstn n s) = true.
Proof.
  unfold dec_int_len. destruct s as [|b tl]; [discriminate|].
  destruct (is_sign b) eqn:Es.
  - destruct (dec_body_len tl) as [m| |] eqn:E; try discriminate.
    intro H; injection H as <-. cbn [firstn forallb]. rewrite (sign_ascii _ Es).
    apply dec_body_len_ascii, E.
  - apply dec_body_len_ascii.
Qed.

Lemma taken_ok {A} (p : parser A) i a n :
  p i = Ok a (advance n i) -> taken p i = Ok (firstn n (rest i)) (advance n i).
Proof. intro H. unfold taken. rewrite H, pos_advance_sub. reflexivity. Qed.

Lemma dec_int_spec i :
  match dec_int_len (rest i) with
  | LOk n => dec_int i = Ok (firstn n (rest i)) (advance n i)
  | LBt => is_bt (dec_int i)
  | LCut => is_cut (dec_int i)
  end.
Proof.
  unfold dec_int. fold dec_body. fold is_sign.
  set (inner := opt (one_of is_sign) ;;; dec_body).
  assert (E : match dec_int_len (rest i) with
              | LOk n => inner i = Ok tt (advance n i)
              | LBt => is_bt (inner i)
              | LCut => is_cut (inner i)
              end).
  { unfold inner, bind, opt, one_of, dec_int_len.
    destruct (rest i) as [|b tl] eqn:Hr.
    - pose proof (dec_body_spec i) as H. rewrite Hr in H. cbn [dec_body_len] in H.
      destruct (dec_body i); simpl in H; try contradiction. exact I.
    - destruct (is_sign b) eqn:Es.
      + pose proof (dec_body_spec (advance 1 i)) as H. rewrite rest_advance, Hr in H. cbn [skipn] in H.
        destruct (dec_body_len tl) as [n| |].
        * rewrite H, advance_advance. reflexivity.
        * destruct (dec_body (advance 1 i)); simpl in H; try contradiction. exact I.
        * destruct (dec_body (advance 1 i)); simpl in H; try contradiction. exact I.
      + pose proof (dec_body_spec i) as H. rewrite Hr in H.
        destruct (dec_body_len (b :: tl)) as [n| |].
        * exact H.
        * destruct (dec_body i); simpl in H; try contradiction. exact I.
        * destruct (dec_body i); simpl in H; try contradiction. exact I. }
  pose proof (dec_int_len_ascii (rest i)) as Ha.
  destruct (dec_int_len (rest i)) as [n| |].
  - unfold context, unchecked_utf8. rewrite (taken_ok _ _ _ _ E).
    rewrite (ascii_utf8 _ (Ha _ eq_refl)). reflexivity.
  - unfold context, unchecked_utf8, taken. destruct (inner i); simpl in E; try contradiction. exact I.
  - unfold context, unchecked_utf8, taken. destruct (inner i); simpl in E; try contradiction. exact I.
Qed.

(* ---- well-formed runs: `*( d / "_" d )` exactly, and appending what follows ------------------- *)
Fixpoint wf_tail (d : byte -> bool) (s : bytes) : bool :=
  match s with
  | [] => true
  | b :: s' =>
    if d b then wf_tail d s'
    else if byte_eqb underscore b then
      match s' with c :: s'' => d c && wf_tail d s'' | [] => false end
    else false
  end.

Lemma wf_tail_cons d b s :
  wf_tail d (b :: s) =
  if d b then wf_tail d s
  else if byte_eqb underscore b then match s with c :: s'' => d c && wf_tail d s'' | [] => false end
  else false.
Proof. reflexivity. Qed.

Lemma us_tail_app d r a :
  wf_tail d a = true ->
  us_tail d (a ++ r) = match us_tail d r with Some n => Some (length a + n) | None => None end.
Proof.
  induction a as [|b|b c a IH1 IH2] using bytes_ind2; intro H.
  - cbn [app length plus]. destruct (us_tail d r); reflexivity.
  - rewrite wf_tail_cons in H. change ([b] ++ r) with (b :: r). rewrite us_tail_cons.
    destruct (d b); [|destruct (byte_eqb underscore b); discriminate].
    destruct (us_tail d r); reflexivity.
  - rewrite wf_tail_cons in H. change ((b :: c :: a) ++ r) with (b :: (c :: a) ++ r). rewrite us_tail_cons.
    destruct (d b).
    + rewrite (IH2 H). destruct (us_tail d r); reflexivity.
    + destruct (byte_eqb underscore b); [|discriminate].
      cbn [app]. apply andb_true_iff in H as [Hc Ha]. rewrite Hc, (IH1 Ha).
      destruct (us_tail d r); reflexivity.
Qed.

Lemma wf_tail_all d s : forallb d s = true -> wf_tail d s = true.
Proof.
  induction s as [|b s IH]; [reflexivity|]. cbn [forallb]. intro H.
  apply andb_true_iff in H as [Hb Hs]. rewrite wf_tail_cons, Hb. apply IH, Hs.
Qed.

Lemma us_tail_stop d s : match s with [] => True | b :: _ => d b = false /\ byte_eqb underscore b = false end ->
  us_tail d s = Some 0.
Proof. destruct s as [|b s]; [reflexivity|]. intros [H1 H2]. rewrite us_tail_cons, H1, H2. reflexivity. Qed.

(* ---- prefixed integers ------------------------------------------------------------------------ *)
Lemma prefixed_int_spec where_ prefix d i body :
  rest i = prefix ++ body ->
  (forall b, d b = true -> ascii b = true) ->
  match body with
  | b :: tl =>
    if d b then
      match us_tail d tl with
      | Some n => prefixed_int where_ prefix (one_of d) i
                  = Ok (firstn (S n) body) (advance (length prefix + S n) i)
      | None => is_cut (prefixed_int where_ prefix (one_of d) i)
      end
    else is_cut (prefixed_int where_ prefix (one_of d) i)
  | [] => is_cut (prefixed_int where_ prefix (one_of d) i)
  end.
Proof.
  intros Hr Hd.
  assert (E : prefixed_int where_ prefix (one_of d) i =
              context (unchecked_utf8 where_
                (taken (cut_err (digits_us (one_of d) (one_of d))))) (advance (length prefix) i)).
  { unfold prefixed_int, preceded, bind, lit, context, unchecked_utf8.
    assert (Hs : strip_prefix prefix (rest i) = Some body) by (apply strip_prefix_spec; exact Hr).
    rewrite Hs. reflexivity. }
  rewrite E. clear E.
  set (j := advance (length prefix) i).
  assert (Hj : rest j = body).
  { unfold j. rewrite rest_advance, Hr. apply skipn_app_len. }
  pose proof (digits_us_spec d d j) as H. rewrite Hj in H.
  destruct body as [|b tl].
  - unfold context, unchecked_utf8, taken, cut_err. rewrite H. exact I.
  - destruct (d b) eqn:Eb.
    + destruct (us_tail d tl) as [n|] eqn:En.
      * assert (T : taken (cut_err (digits_us (one_of d) (one_of d))) j = Ok (firstn (S n) (rest j)) (advance (S n) j)).
        { apply taken_ok with (a := tt). unfold cut_err. rewrite H. reflexivity. }
        unfold context, unchecked_utf8. rewrite T, Hj.
        assert (Ha : forallb ascii (firstn (S n) (b :: tl)) = true).
        { cbn [firstn forallb]. rewrite (Hd _ Eb). apply (us_tail_forall ascii d tl Hd eq_refl _ En). }
        rewrite (ascii_utf8 _ Ha). unfold j. rewrite advance_advance. reflexivity.
      * unfold context, unchecked_utf8, taken, cut_err.
        destruct (digits_us (one_of d) (one_of d) j); simpl in H; try contradiction. exact I.
    + unfold context, unchecked_utf8, taken, cut_err. rewrite H. exact I.
Qed.

(* ---- the dispatch of `integer` ---------------------------------------------------------------- *)
Definition dec_conv (s : bytes) : sub Z :=
  match int_of 10 s with
  | TmOk z => SubOk z
  | TmErr c => SubCut (err_of c)
  | TmPanic st => SubPanic st
  end.

Lemma integer_dec i :
  match rest i with b :: _ => b <> x30 | [] => True end ->
  integer i = and_then dec_int dec_conv i.
Proof.
  intro H. unfold integer. fold dec_conv.
  destruct (rest i) as [|b [|c tl]]; [reflexivity| |];
    cbn [firstn bytes_eqb];
    (destruct (byte_eqb b x30) eqn:E; [apply byte_eqb_eq in E; contradiction | reflexivity]).
Qed.

Lemma integer_zero i : rest i = [x30] -> integer i = and_then dec_int dec_conv i.
Proof. intro H. unfold integer. fold dec_conv. rewrite H. reflexivity. Qed.

Lemma integer_hex i body : rest i = HEX_PREFIX ++ body ->
  integer i = cut_err (try_map (int_of 16) hex_int) i.
Proof. intro H. unfold integer. rewrite H. reflexivity. Qed.
Lemma integer_oct i body : rest i = OCT_PREFIX ++ body ->
  integer i = cut_err (try_map (int_of 8) oct_int) i.
Proof. intro H. unfold integer. rewrite H. reflexivity. Qed.
Lemma integer_bin i body : rest i = BIN_PREFIX ++ body ->
  integer i = cut_err (try_map (int_of 2) bin_int) i.
Proof. intro H. unfold integer. rewrite H. reflexivity. Qed.
