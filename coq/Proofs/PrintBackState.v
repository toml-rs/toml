(* Proofs/PrintBackState.v — C03, class (c): what finalize_table / start_table / start_array_table
   (Model/Document.v, state.rs) do to the sections of the tree. *)
From TV Require Import Base.Prelude.
From TV Require Import Model.Tree Model.Parse Model.Document.
From TV Require Import
                       Proofs.PrintBackEnts Proofs.PrintBackSecs.
From TV Require Import Proofs.KvFacts.
From TV Require Import Proofs.DocumentOps.
Require Import Lia ZifyBool ZifyN ZifyNat Sorting.Sorted Sorting.Permutation.

Definition Proot (r : tbl) : list psec := sec_of r false :: PI (t_items r).

Lemma frame_Proot r r' D1 D2 : frame r r' -> Permutation (PI (t_items r') ++ D1) (PI (t_items r) ++ D2) ->
  Permutation (Proot r' ++ D1) (Proot r ++ D2).
Proof.
  intros (H1 & H2 & H3 & H4 & H5 & H6) Hp. unfold Proot, sec_of. rewrite H1, H4, H5, H6. cbn [app]. apply perm_skip, Hp.
Qed.

Section State.
  Variable K : key -> Prop.

  (* ---- finalize_table below the root ------------------------------------------------------------------------- *)
  Lemma finalize_secs st st' ppath k :
    pop_key (st_path st) = Some (ppath, k) -> finalize_table st = COk st' ->
    uk K (st_root st) -> uk K (st_current st) -> K k -> Forall K ppath ->
    (st_is_array st = false -> exists par, reach (st_root st) ppath = Some par /\ kv_get (t_items par) (k_key k) = None) ->
    st' = finalized st (st_root st') /\ frame (st_root st) (st_root st') /\ uk K (st_root st')
    /\ Permutation (Proot (st_root st')) (Proot (st_root st) ++ P (st_current st) (st_is_array st)).
  Proof.
    intros Ep Hf Hur Huc Hk Hpp Habs. rewrite finalize_table_eq, Ep in Hf.
    destruct (with_table_at (st_root st) ppath false ((if st_is_array st then f_fin_aot else f_fin_std) k (st_current st))) as [[root' u]| |] eqn:E; try discriminate.
    injection Hf as <-. cbn [finalized st_root]. split; [reflexivity|].
    destruct (wta_dctx false _ _ _ _ _ E) as (par & par' & Hfp & Hc).
    destruct (ctx_uk K _ _ _ _ _ Hc Hpp Hur) as [Hupar Hup']. pose proof Hupar as Hupar0. apply uk_eq in Hupar as (Hn & Him & Hs).
    destruct (st_is_array st) eqn:Ea.
    - (* an element of an array of tables *)
      unfold f_fin_aot in Hfp. destruct (kv_get (t_items par) (k_key k)) as [[k0 it]|] eqn:G.
      + destruct it as [|v|sub|ts sp]; try discriminate. injection Hfp as <-.
        assert (Hfr : frame par (t_set_items par (kv_set (t_items par) (k_key k) (IAot (ts ++ [st_current st])
                        match ts ++ [st_current st] with first :: _ => union_span (t_span first) (t_span (st_current st)) | [] => None end))))
          by (apply frame_set_items, (vals_set _ _ _ _ _ G); reflexivity).
        split; [apply (ctx_frame _ _ _ _ _ Hc Hfr)|]. split.
        * apply Hup'. destruct (uks_get K _ _ _ _ Hs G) as [Hk0 Hts]. apply uki_aot in Hts.
          apply uk_set_items; [rewrite keys_set; exact Hn|apply (vals_set _ _ _ _ _ G); reflexivity|exact Hupar0|].
          apply (uks_set K _ _ _ _ _ Hs G); [exact Hk0|]. apply uki_aot. apply Forall_app. split; [exact Hts|constructor; [exact Huc|constructor]].
        * rewrite <- (app_nil_r (Proot root')). apply frame_Proot; [apply (ctx_frame _ _ _ _ _ Hc Hfr)|].
          apply (ctx_perm _ _ _ _ _ _ _ Hc Hfr). rewrite items_set_items. apply (PI_set _ _ _ _ _ _ _ G).
          rewrite !PIt_aot, flat_map_app. cbn [flat_map]. rewrite !app_nil_r. reflexivity.
      + injection Hfp as <-.
        assert (Hfr : frame par (t_set_items par (kv_push (t_items par) k (IAot [st_current st] (union_span (t_span (st_current st)) (t_span (st_current st)))))))
          by (apply frame_set_items, vals_push_tab; reflexivity).
        split; [apply (ctx_frame _ _ _ _ _ Hc Hfr)|]. split.
        * apply Hup'. apply uk_set_items; [apply nodup_push; assumption|apply vals_push_tab; reflexivity|exact Hupar0|].
          apply uks_push; [exact Hs|intros _; exact Hk|]. apply uki_aot. constructor; [exact Huc|constructor].
        * rewrite <- (app_nil_r (Proot root')). apply frame_Proot; [apply (ctx_frame _ _ _ _ _ Hc Hfr)|].
          apply (ctx_perm _ _ _ _ _ _ _ Hc Hfr). rewrite items_set_items. unfold kv_push. rewrite PI_app, app_nil_r.
          apply Permutation_app_head. change (PI [(k, IAot [st_current st] (union_span (t_span (st_current st)) (t_span (st_current st))))])
            with (PIt (IAot [st_current st] (union_span (t_span (st_current st)) (t_span (st_current st)))) ++ []).
          rewrite PIt_aot. cbn [flat_map]. rewrite !app_nil_r. reflexivity.
    - (* a table: its name is free in the parent *)
      destruct (Habs eq_refl) as (par0 & Hr & Hg). destruct (ctx_reach _ _ _ _ _ Hc) as [_ Hpar]. rewrite (Hpar par0 Hr) in Hg.
      unfold f_fin_std in Hfp. rewrite Hg in Hfp. injection Hfp as <-.
      assert (Hfr : frame par (t_set_items par (kv_push (t_items par) k (ITable (st_current st)))))
        by (apply frame_set_items, vals_push_tab; reflexivity).
      split; [apply (ctx_frame _ _ _ _ _ Hc Hfr)|]. split.
      + apply Hup'. apply uk_set_items; [apply nodup_push; assumption|apply vals_push_tab; reflexivity|exact Hupar0|].
        apply uks_push; [exact Hs|intros _; exact Hk|exact Huc].
      + rewrite <- (app_nil_r (Proot root')). apply frame_Proot; [apply (ctx_frame _ _ _ _ _ Hc Hfr)|].
        apply (ctx_perm _ _ _ _ _ _ _ Hc Hfr). rewrite items_set_items. unfold kv_push. rewrite PI_app, app_nil_r.
        apply Permutation_app_head. change (PI [(k, ITable (st_current st))]) with (P (st_current st) false ++ []). rewrite app_nil_r. reflexivity.
  Qed.

  (* ---- start_table: the name is free afterwards; a super-table of that name gives its content to the new table ---- *)
  Lemma start_table_secs st path dec sp st' ppath k :
    start_table st path dec sp = COk st' -> pop_key path = Some (ppath, k) -> uk K (st_root st) -> Forall K ppath -> t_items (st_current st) = [] ->
    exists T0,
      st' = open_table st (st_root st') (Tbl T0 decor_default false false None None) path dec sp false
      /\ vals T0 = [] /\ uks K T0 /\ NoDup (map kk T0)
      /\ frame (st_root st) (st_root st') /\ uk K (st_root st')
      /\ Permutation (Proot (st_root st') ++ PI T0) (Proot (st_root st))
      /\ exists par, reach (st_root st') ppath = Some par /\ kv_get (t_items par) (k_key k) = None.
  Proof.
    intros H Ep Hur Hpp Hcur.
    destruct (start_table_dctx _ _ _ _ _ H) as (_ & _ & ppath' & k' & root' & par & par' & taken & Ep' & Hc & -> & Htk).
    rewrite Ep in Ep'. injection Ep' as <- <-.
    destruct (ctx_uk K _ _ _ _ _ Hc Hpp Hur) as [Hupar Hup']. pose proof Hupar as Hupar0. apply uk_eq in Hupar as (Hn & Him & Hs).
    destruct (ctx_reach _ _ _ _ _ Hc) as [Hreach _].
    destruct taken as [t|]; [destruct Htk as ((k0 & G) & Eim & Edt & ->)|destruct Htk as (G & ->)].
    - destruct (uks_get K _ _ _ _ Hs G) as [_ Hut]. cbn [uki] in Hut. pose proof Hut as Hut0. apply uk_eq in Hut as (Hnt & Himt & Hst).
      destruct (nodup_remove _ _ _ _ Hn G) as [Hn' Hg'].
      assert (Hfr : frame par (t_set_items par (kv_remove (t_items par) (k_key k))))
        by (apply frame_set_items, (vals_remove_tab _ _ _ _ G); reflexivity).
      exists (t_items t). cbn [open_table st_root]. split; [destruct t; reflexivity|].
      split; [apply Himt, Eim|]. split; [exact Hst|]. split; [exact Hnt|]. split; [apply (ctx_frame _ _ _ _ _ Hc Hfr)|]. split.
      + apply Hup'. apply uk_set_items; [exact Hn'|apply (vals_remove_tab _ _ _ _ G); reflexivity|exact Hupar0|apply uks_remove, Hs].
      + split.
        * rewrite <- (app_nil_r (Proot (st_root st))). apply frame_Proot; [apply (ctx_frame _ _ _ _ _ Hc Hfr)|].
          apply (ctx_perm _ _ _ _ _ _ _ Hc Hfr). rewrite items_set_items, app_nil_r.
          destruct (kv_get_split _ _ _ _ G) as (A & B & EA & _ & _ & ER). rewrite ER, EA, !PI_app.
          change (PI ((k0, ITable t) :: B)) with (P t false ++ PI B). rewrite P_eq.
          assert (Hown : own t false = []).
          { unfold own. rewrite Eim. unfold no_vals. rewrite (Himt Eim). reflexivity. }
          rewrite Hown. cbn [app]. rewrite <- !app_assoc. apply Permutation_app_head, Permutation_app_comm.
        * exists (t_set_items par (kv_remove (t_items par) (k_key k))). split; [exact Hreach|]. rewrite items_set_items. exact Hg'.
    - exists []. cbn [st_root].
      split; [unfold open_table; rewrite Hcur; reflexivity|]. split; [reflexivity|]. split; [constructor|]. split; [constructor|].
      split; [apply (ctx_frame _ _ _ _ _ Hc (frame_refl par))|]. split; [apply Hup', Hupar0|]. split.
      + cbn [PI flat_map]. rewrite <- (app_nil_r (Proot (st_root st))).
        apply frame_Proot; [apply (ctx_frame _ _ _ _ _ Hc (frame_refl par))|]. apply (ctx_perm _ _ _ _ _ _ _ Hc (frame_refl par)). reflexivity.
      + exists par. split; [exact Hreach|exact G].
  Qed.

  (* ---- start_array_table --------------------------------------------------------------------------------------- *)
  Lemma start_array_secs st path dec sp st' ppath k :
    start_array_table st path dec sp = COk st' -> pop_key path = Some (ppath, k) -> uk K (st_root st) -> Forall K ppath -> K k ->
    st' = open_table st (st_root st') (st_current st) path dec sp true
    /\ frame (st_root st) (st_root st') /\ uk K (st_root st')
    /\ Permutation (Proot (st_root st')) (Proot (st_root st)).
  Proof.
    intros H Ep Hur Hpp Hk.
    destruct (start_array_table_dctx _ _ _ _ _ H) as (_ & _ & ppath' & k' & root' & par & par' & Ep' & Hc & -> & Hpar').
    rewrite Ep in Ep'. injection Ep' as <- <-.
    destruct (ctx_uk K _ _ _ _ _ Hc Hpp Hur) as [Hupar Hup']. pose proof Hupar as Hupar0. apply uk_eq in Hupar as (Hn & Him & Hs).
    cbn [open_table st_root]. split; [reflexivity|].
    destruct Hpar' as [[(k0 & ts & asp & G) ->]|[G ->]].
    - split; [apply (ctx_frame _ _ _ _ _ Hc (frame_refl par))|]. split; [apply Hup', Hupar0|].
      rewrite <- (app_nil_r (Proot root')), <- (app_nil_r (Proot (st_root st))).
      apply frame_Proot; [apply (ctx_frame _ _ _ _ _ Hc (frame_refl par))|]. apply (ctx_perm _ _ _ _ _ _ _ Hc (frame_refl par)). reflexivity.
    - assert (Hfr : frame par (t_set_items par (kv_push (t_items par) k (IAot [] None)))) by (apply frame_set_items, vals_push_tab; reflexivity).
      split; [apply (ctx_frame _ _ _ _ _ Hc Hfr)|]. split.
      + apply Hup'. apply uk_set_items; [apply nodup_push; assumption|apply vals_push_tab; reflexivity|exact Hupar0|].
        apply uks_push; [exact Hs|intros _; exact Hk|]. apply uki_aot. constructor.
      + rewrite <- (app_nil_r (Proot root')), <- (app_nil_r (Proot (st_root st))).
        apply frame_Proot; [apply (ctx_frame _ _ _ _ _ Hc Hfr)|]. apply (ctx_perm _ _ _ _ _ _ _ Hc Hfr).
        rewrite items_set_items. unfold kv_push. rewrite PI_app. cbn [PI flat_map snd PIt app]. rewrite !app_nil_r. reflexivity.
  Qed.
End State.
