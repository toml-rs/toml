(* Proofs/WFPrintFlat.v — WF backbone: the flattening of dotted inline tables into key paths (Model/Encode.v
   inline_values), fuel-free, and its reading as a dotted forest of Proofs/WFSem.v. *)
From TV Require Import Base.Prelude Gen.Consts Spec.Syntax Spec.WF.
From TV Require Import Model.Tree Model.Parse Model.Encode.
From TV Require Import Proofs.LexEquivBase Proofs.GrammarBase.
From TV Require Import Proofs.SpansDefs Proofs.WFSem Proofs.WFPrintKey.
From TV Require Import Proofs.KvFacts.
Require Import Lia.

(* ---- induction over the entries of nested dotted inline tables ---------------------------------------------------- *)
Lemma item_dotted_ind (P : item -> Prop) :
  (forall it, (forall sub pre im d sp, it = IValue (VInline sub pre im true d sp) -> Forall (fun kv => P (snd kv)) sub) -> P it) ->
  forall it, P it.
Proof.
  intro H.
  refine (proj1 (proj2 (tree_ind3
    (fun v => match v with VInline sub _ _ _ _ _ => Forall (fun kv : key * item => P (snd kv)) sub | _ => True end)
    P (fun _ => True) _ _ _ _ _ _ _ _))).
  - intros; exact I.
  - intros; exact I.
  - intros items pre im dt d sp Hf. exact Hf.
  - apply H. intros sub pre im d sp E. discriminate.
  - intros v Hv. apply H. intros sub pre im d sp E. inversion E; subst. exact Hv.
  - intros t _. apply H. intros sub pre im d sp E. discriminate.
  - intros ts asp _. apply H. intros sub pre im d sp E. discriminate.
  - intros; exact I.
Qed.

(* a value written with a key path of its own: anything but a dotted inline table *)
Definition plain (v : value) : Prop := match v with VInline _ _ _ true _ _ => False | _ => True end.

(* the same induction by cases: a dotted inline table, a plain value, no value *)
Lemma item_flat_ind (P : item -> Prop) :
  (forall sub pre im d sp, Forall (fun kv => P (snd kv)) sub -> P (IValue (VInline sub pre im true d sp))) ->
  (forall v, plain v -> P (IValue v)) ->
  P INone -> (forall t, P (ITable t)) -> (forall ts sp, P (IAot ts sp)) ->
  forall it, P it.
Proof.
  intros Hd Hp H1 H2 H3. induction it as [it IH] using item_dotted_ind. destruct it as [|v|t|ts sp]; auto.
  destruct v as [x r d|vals tr c d sp|sub pre im [|] d sp]; [apply Hp; exact I|apply Hp; exact I| |apply Hp; exact I].
  apply Hd. exact (IH sub pre im d sp eq_refl).
Qed.


(* ---- flattening --------------------------------------------------------------------------------------------------- *)
Fixpoint iflat_item (parent : list key) (k : key) (it : item) {struct it} : list (list key * value) :=
  match it with
  | IValue v =>
    match v with
    | VInline sub _ _ true _ _ => flat_map (fun kv => iflat_item (parent ++ [k]) (fst kv) (snd kv)) sub
    | _ => [(parent ++ [k], v)]
    end
  | _ => []
  end.
Definition iflat (parent : list key) (items : kvs) : list (list key * value) :=
  flat_map (fun kv => iflat_item parent (fst kv) (snd kv)) items.

Definition ksz (items : kvs) : nat := fold_right (fun kv acc => item_size (snd kv) + acc) 0 items.
Lemma value_size_inline items pre im dt d sp : value_size (VInline items pre im dt d sp) = S (ksz items).
Proof.
  cbn [value_size]. f_equal. unfold ksz. induction items as [|[k i0] tl IH]; [reflexivity|]. cbn [fold_right snd]. rewrite IH. reflexivity.
Qed.
Lemma ksz_in items k it : In (k, it) items -> item_size it <= ksz items.
Proof.
  unfold ksz. induction items as [|[k0 i0] tl IH]; [contradiction|]. cbn [fold_right snd]. intros [E|H]; [inversion E; subst; lia|].
  specialize (IH H). lia.
Qed.

(* at a plain value *)
Lemma iflat_item_plain parent k v : plain v -> iflat_item parent k (IValue v) = [(parent ++ [k], v)].
Proof. destruct v as [| |sub pre im [|] d sp]; [reflexivity|reflexivity|contradiction|reflexivity]. Qed.
Lemma pair_wf_plain line v : plain v -> pair_wf line (IValue v) = value_wf (if line then CLine else CInl) v.
Proof. destruct v as [| |sub pre im [|] d sp]; [reflexivity|reflexivity|contradiction|reflexivity]. Qed.
Lemma pair_lim_plain d n v : plain v -> pair_lim d n (IValue v) = (n + value_depth v < LIMIT /\ value_lim d v).
Proof. destruct v as [| |sub pre im [|] d0 sp]; [reflexivity|reflexivity|contradiction|reflexivity]. Qed.
Lemma line_lim_plain n v : plain v -> line_lim n (IValue v) = (n < LIMIT /\ value_lim 0 v).
Proof. destruct v as [| |sub pre im [|] d sp]; [reflexivity|reflexivity|contradiction|reflexivity]. Qed.

Lemma inline_values_item f parent k it : item_size it <= f ->
  (match it with
   | IValue (VInline sub _ _ true _ _) => inline_values f (parent ++ [k]) sub
   | IValue v => [(parent ++ [k], v)]
   | _ => []
   end) = iflat_item parent k it.
Proof.
  revert f parent k. induction it as [sub pre im d sp IH|v Hv| | |] using item_flat_ind; intros f parent k Hs; try reflexivity.
  - change (item_size (IValue (VInline sub pre im true d sp))) with (S (value_size (VInline sub pre im true d sp))) in Hs.
    rewrite value_size_inline in Hs. destruct f as [|f]; [lia|]. cbn [inline_values iflat_item].
    apply flat_map_ext_in. intros [k1 i1] Hin. cbn [fst snd]. rewrite Forall_forall in IH.
    apply (IH (k1, i1) Hin). cbn [snd]. pose proof (ksz_in _ _ _ Hin). lia.
  - rewrite (iflat_item_plain _ _ _ Hv). destruct v as [| |sub pre im [|] d sp]; [reflexivity|reflexivity|contradiction|reflexivity].
Qed.
Lemma inline_values_eq f parent items : ksz items < f -> inline_values f parent items = iflat parent items.
Proof.
  intro Hs. destruct f as [|f]; [lia|]. cbn [inline_values]. unfold iflat. apply flat_map_ext_in.
  intros [k it] Hin. cbn [fst snd]. apply inline_values_item. pose proof (ksz_in _ _ _ Hin). lia.
Qed.

(* ---- the entries of the flattening ------------------------------------------------------------------------------------ *)
(* every flattened entry of a well-formed inline table: path = parent ++ keys of dotted tables ++ own key *)
Section Entries.
  Variable line : bool.
  Variable Q : list key -> value -> Prop.
  (* Q is established at the leaves *)
  Definition leaf_ok (n : nat) (parent : list key) (k : key) (v : value) : Prop :=
    Forall (key_wf line) parent -> key_wf line k ->
    value_wf (if line then CLine else CInl) v -> Q (parent ++ [k]) v.
End Entries.

(* Every flattened entry of a well-formed entry has Q: its path is made of well-formed keys, its value is well-formed
   and plain, and whatever else is known of the entry by the length of its key path (R: limits, sizes) and passes from
   a dotted table to its entries holds of it. *)
Section Flattened.
  Variable line : bool.
  Variable R : nat -> item -> Prop.
  Variable Q : list key -> value -> Prop.
  Hypothesis R_dotted : forall n sub pre im d sp,
    R n (IValue (VInline sub pre im true d sp)) -> Forall (fun kv => R (S n) (snd kv)) sub.
  Hypothesis Q_plain : forall p v,
    plain v -> p <> [] -> Forall (key_wf line) p -> value_wf (if line then CLine else CInl) v -> R (length p) (IValue v) -> Q p v.

  Lemma iflat_item_all : forall it parent k,
    Forall (key_wf line) parent -> key_wf line k -> pair_wf line it -> R (S (length parent)) it ->
    Forall (fun pv => Q (fst pv) (snd pv)) (iflat_item parent k it).
  Proof.
    induction it as [sub pre im d sp IH|v Hv| | |] using item_flat_ind; intros parent k Hp Hk Hw Hr; try contradiction.
    - cbn [iflat_item]. destruct Hw as (_ & _ & Hall). apply all_P_Forall in Hall. apply R_dotted in Hr.
      apply Forall_flat_map, Forall_forall. rewrite Forall_forall in IH, Hall, Hr. intros [k1 i1] Hin. destruct (Hall _ Hin) as [Hk1 Hw1].
      apply (IH _ Hin); [apply Forall_snoc; assumption|exact Hk1|exact Hw1|]. rewrite last_length. exact (Hr _ Hin).
    - rewrite (iflat_item_plain _ _ _ Hv). rewrite (pair_wf_plain _ _ Hv) in Hw. constructor; [|constructor]. cbn [fst snd].
      apply Q_plain; [exact Hv|destruct parent; discriminate|apply Forall_snoc; assumption|exact Hw|rewrite last_length; exact Hr].
  Qed.
  Lemma iflat_all items :
    all_P (fun kv => key_wf line (fst kv) /\ pair_wf line (snd kv)) items -> Forall (fun kv => R 1 (snd kv)) items ->
    Forall (fun pv => Q (fst pv) (snd pv)) (iflat [] items).
  Proof.
    intros Hall Hr. apply all_P_Forall in Hall. unfold iflat. apply Forall_flat_map. rewrite Forall_forall in *. intros [k it] Hin.
    destruct (Hall _ Hin) as [Hk Hw]. exact (iflat_item_all it [] k (Forall_nil _) Hk Hw (Hr _ Hin)).
  Qed.
End Flattened.

(* ---- as a dotted forest -------------------------------------------------------------------------------------------------- *)
Fixpoint dn_item (it : item) {struct it} : dnode dval :=
  match it with
  | IValue v =>
    match v with
    | VInline sub _ _ true _ _ => DT (map (fun kv => (k_key (fst kv), dn_item (snd kv))) sub)
    | _ => DV (absv v)
    end
  | _ => DT []
  end.
Definition dforest (items : kvs) : list (bytes * dnode dval) := map (fun kv => (k_key (fst kv), dn_item (snd kv))) items.
Lemma dn_item_plain v : plain v -> dn_item (IValue v) = DV (absv v).
Proof. destruct v as [| |sub pre im [|] d sp]; [reflexivity|reflexivity|contradiction|reflexivity]. Qed.

Definition pv_abs (pv : list key * value) : list bytes * dval := (ktexts (fst pv), absv (snd pv)).

Lemma iflat_item_dflat : forall it parent k,
  map pv_abs (iflat_item parent k it)
  = map (fun pv => (ktexts parent ++ fst pv, snd pv)) (dflat_node dval (k_key k) (dn_item it)).
Proof.
  induction it as [sub pre im d sp IH|v Hv| | |] using item_flat_ind; intros parent k; try reflexivity.
  - cbn [iflat_item dn_item dflat_node]. induction IH as [|[k1 i1] sub H1 _ IHs]; [reflexivity|].
    cbn [flat_map map fst snd]. rewrite !map_app. f_equal; [|exact IHs].
    cbn [snd] in H1. rewrite (H1 (parent ++ [k]) k1). rewrite !map_map. apply map_ext. intros [p x]. cbn [fst snd].
    unfold ktexts. rewrite map_app, <- app_assoc. reflexivity.
  - rewrite (iflat_item_plain _ _ _ Hv), (dn_item_plain _ Hv). unfold pv_abs, ktexts. cbn [map dflat_node fst snd]. rewrite map_app. reflexivity.
Qed.
Lemma iflat_dflat items : map pv_abs (iflat [] items) = dflat dval (dforest items).
Proof.
  unfold iflat, dflat, dforest. induction items as [|[k it] items IH]; [reflexivity|]. cbn [flat_map map fst snd].
  rewrite map_app, IH. f_equal. rewrite iflat_item_dflat. cbn [ktexts map app]. rewrite <- (map_id (dflat_node _ _ _)) at 2.
  apply map_ext. intros [p x]. reflexivity.
Qed.

(* ---- the forest of a well-formed inline table is well-formed, and denotes the table's data --------------------------- *)
Lemma dn_item_wf line : forall it, pair_wf line it -> dwf_node dval (dn_item it).
Proof.
  induction it as [sub pre im d sp IH|v Hv| | |] using item_flat_ind; intro Hw; try contradiction.
  - destruct Hw as (Hne & Hnd & Hall). apply all_P_Forall in Hall. cbn [dn_item]. constructor.
    + destruct sub; [congruence|discriminate].
    + rewrite map_map. exact Hnd.
    + rewrite map_map. cbn [snd]. apply Forall_map. rewrite Forall_forall in *. intros kv Hin. exact (IH _ Hin (proj2 (Hall _ Hin))).
  - rewrite (dn_item_plain _ Hv). constructor.
Qed.
Lemma dforest_wf line items :
  NoDup (kkeys items) -> all_P (fun kv => key_wf line (fst kv) /\ pair_wf line (snd kv)) items -> dwf dval (dforest items).
Proof.
  intros Hnd Hall. apply all_P_Forall in Hall. unfold dforest. split; rewrite map_map; [exact Hnd|]. cbn [snd].
  apply Forall_map. eapply Forall_impl; [|exact Hall]. intros kv [_ Hw]. exact (dn_item_wf line _ Hw).
Qed.

Lemma dres_abs line : forall it, pair_wf line it -> node_dval (dres_node dval (dn_item it)) = absi it.
Proof.
  induction it as [sub pre im d sp IH|v Hv| | |] using item_flat_ind; intro Hw; try contradiction.
  - destruct Hw as (_ & _ & Hall). apply all_P_Forall in Hall. cbn [dn_item dres_node node_dval absi]. rewrite absv_inline. f_equal.
    rewrite !map_map. cbn [fst snd]. apply map_ext_in. intros kv Hin. rewrite Forall_forall in *.
    unfold absi_kv. rewrite (IH _ Hin (proj2 (Hall _ Hin))). reflexivity.
  - rewrite (dn_item_plain _ Hv). reflexivity.
Qed.
Lemma dforest_abs line items :
  all_P (fun kv => key_wf line (fst kv) /\ pair_wf line (snd kv)) items ->
  tree_dval (dres dval (dforest items)) = map absi_kv items.
Proof.
  intro Hall. apply all_P_Forall in Hall. unfold tree_dval, dres, dforest. rewrite !map_map. cbn [fst snd].
  apply map_ext_in. intros kv Hin. rewrite Forall_forall in Hall. unfold absi_kv. rewrite (dres_abs line _ (proj2 (Hall _ Hin))). reflexivity.
Qed.
