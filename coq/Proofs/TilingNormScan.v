(* Proofs/TilingNormScan.v — C03, scanner side, part 1: the streaming view of Spec/Norm.v.
     - a labelled text zs : list (byte * label); `outz` (the bytes kept) and the line flag
       `flag` (FFresh / FStmt / FCmt) are folds that distribute over ++;
     - `normalize_eq`: normalize s = outz zs ++ tail_lf zs for the labelled text zs of drop_bom s
       (the python-mirror `has_stmt (last_line zs)` is `flag FFresh zs = FStmt`);
     - `piece F zs`: scanning txt zs in state SNormal, whatever text r with F r follows, gives the
       labels lab zs and leaves the scanner in state SNormal in front of r;
     - `til k F t o`: the text t is a piece with follow condition F, output o and flag behaviour
       k (CS statement-like / CB blanks / CT trivia), with the composition table `til_app`;
     - the leaf pieces that need no string scanning: plain texts, whitespace, newlines,
       comments, ws-comment-newline. *)
From TV Require Import Base.Prelude Spec.Abnf Spec.Lex Spec.Syntax Spec.Norm.
From TV Require Import Proofs.LexEquivBase Proofs.TilingDefs.
Require Import Lia ZifyBool ZifyN ZifyNat.

(* ================================================================================================= *)
(* labelled texts                                                                                    *)
(* ================================================================================================= *)
Definition lz := list (byte * label).
Definition txt (zs : lz) : bytes := map fst zs.
Definition lab (zs : lz) : list label := map snd zs.
Definition outz (zs : lz) : bytes := map fst (filter kept zs).

Lemma txt_app a b : txt (a ++ b) = txt a ++ txt b.
Proof. apply map_app. Qed.
Lemma lab_app a b : lab (a ++ b) = lab a ++ lab b.
Proof. apply map_app. Qed.
Lemma outz_app a b : outz (a ++ b) = outz a ++ outz b.
Proof. unfold outz. rewrite filter_app, map_app. reflexivity. Qed.

Lemma combine_txt_lab zs : combine (txt zs) (lab zs) = zs.
Proof. unfold txt, lab. induction zs as [|[b l] zs IH]; [reflexivity|]. cbn [map combine fst snd]. rewrite IH. reflexivity. Qed.

(* the same label on every byte *)
Definition tag (l : label) (t : bytes) : lz := map (fun b => (b, l)) t.

Lemma txt_tag l t : txt (tag l t) = t.
Proof. unfold txt, tag. rewrite map_map. cbn. apply map_id. Qed.
Lemma lab_tag l t : lab (tag l t) = map (fun _ => l) t.
Proof. unfold lab, tag. rewrite map_map. reflexivity. Qed.
Lemma tag_app l a b : tag l (a ++ b) = tag l a ++ tag l b.
Proof. apply map_app. Qed.

(* ---- the bytes kept ------------------------------------------------------------------------------ *)
Lemma outz_tag_ml l t : in_ml l = true -> outz (tag l t) = t.
Proof.
  intro H. induction t as [|b t IH]; [reflexivity|].
  unfold outz in *. cbn [tag map filter]. unfold kept at 1. cbn [fst snd]. rewrite H.
  rewrite andb_false_r. cbn [negb map fst]. unfold tag in IH. rewrite IH. reflexivity.
Qed.

Lemma outz_tag_ncr l t : in_ml l = false -> outz (tag l t) = ncr t.
Proof.
  intro H. induction t as [|b t IH]; [reflexivity|].
  unfold outz in *. cbn [tag map filter ncr]. unfold kept at 1. cbn [fst snd]. rewrite H.
  cbn [negb]. rewrite andb_true_r. unfold tag, ncr in IH.
  destruct (byte_eqb b x0d); cbn [negb map fst]; rewrite IH; reflexivity.
Qed.

(* ---- the end of the output ----------------------------------------------------------------------- *)
Lemma ends_lf_snoc a b : ends_lf (a ++ [b]) = byte_eqb b x0a.
Proof. unfold ends_lf. rewrite rev_app_distr. reflexivity. Qed.

Lemma ends_lf_app a b : b <> [] -> ends_lf (a ++ b) = ends_lf b.
Proof.
  intro H. destruct (exists_last H) as (b' & x & ->). rewrite app_assoc, !ends_lf_snoc. reflexivity.
Qed.

Lemma ends_lf_app_false a b : ends_lf a = false -> ends_lf b = false -> ends_lf (a ++ b) = false.
Proof.
  intros Ha Hb. destruct b as [|x b]; [rewrite app_nil_r; exact Ha|].
  rewrite ends_lf_app by discriminate. exact Hb.
Qed.

(* ================================================================================================= *)
(* the line flag                                                                                     *)
(* ================================================================================================= *)
Inductive lflag : Set := FFresh | FStmt | FCmt.

Definition blank (c : byte) : bool := byte_eqb c x20 || byte_eqb c x09 || byte_eqb c x0d.

Definition flag_step (f : lflag) (z : byte * label) : lflag :=
  if line_nl z then FFresh
  else match f with
       | FFresh => if is_comment (snd z) then FCmt else if blank (fst z) then FFresh else FStmt
       | _ => f
       end.

Definition flag (f : lflag) (zs : lz) : lflag := fold_left flag_step zs f.

Lemma flag_app f a b : flag f (a ++ b) = flag (flag f a) b.
Proof. apply fold_left_app. Qed.
Lemma flag_cons f z zs : flag f (z :: zs) = flag (flag_step f z) zs.
Proof. reflexivity. Qed.
Lemma flag_nil f : flag f [] = f.
Proof. reflexivity. Qed.

Definition is_stmt (f : lflag) : bool := match f with FStmt => true | _ => false end.

Definition no_nl (zs : lz) : Prop := Forall (fun z => line_nl z = false) zs.

Lemma no_nl_app a b : no_nl a -> no_nl b -> no_nl (a ++ b).
Proof. intros Ha Hb. apply Forall_app. split; assumption. Qed.

Lemma flag_stmt_no_nl zs : no_nl zs -> flag FStmt zs = FStmt.
Proof.
  induction 1 as [|z zs Hz _ IH]; [reflexivity|]. rewrite flag_cons. unfold flag_step. rewrite Hz. exact IH.
Qed.
Lemma flag_cmt_no_nl zs : no_nl zs -> flag FCmt zs = FCmt.
Proof.
  induction 1 as [|z zs Hz _ IH]; [reflexivity|]. rewrite flag_cons. unfold flag_step. rewrite Hz. exact IH.
Qed.

Lemma has_stmt_flag_line zs : no_nl zs -> has_stmt zs = is_stmt (flag FFresh zs).
Proof.
  induction 1 as [|[c l] zs Hz Hzs IH]; [reflexivity|].
  rewrite flag_cons. unfold flag_step. rewrite Hz. cbn [has_stmt fst snd].
  destruct (is_comment l).
  - rewrite flag_cmt_no_nl by exact Hzs. reflexivity.
  - fold (blank c). destruct (blank c).
    + exact IH.
    + rewrite flag_stmt_no_nl by exact Hzs. reflexivity.
Qed.

Lemma last_line_snoc zs z : last_line (zs ++ [z]) = if line_nl z then [] else last_line zs ++ [z].
Proof.
  unfold last_line. rewrite rev_app_distr. cbn [rev app before_nl].
  destruct (line_nl z); reflexivity.
Qed.

Lemma before_nl_no_nl zs : no_nl (before_nl zs).
Proof.
  induction zs as [|z zs IH]; [constructor|]. cbn [before_nl].
  destruct (line_nl z) eqn:E; [constructor|]. constructor; assumption.
Qed.

Lemma last_line_no_nl zs : no_nl (last_line zs).
Proof. unfold last_line, no_nl. apply Forall_rev. apply before_nl_no_nl. Qed.

Lemma flag_snoc f zs z : flag f (zs ++ [z]) = flag_step (flag f zs) z.
Proof. rewrite flag_app. reflexivity. Qed.

Lemma flag_last_line zs : flag FFresh zs = flag FFresh (last_line zs).
Proof.
  induction zs as [|z zs IH] using rev_ind; [reflexivity|].
  rewrite flag_snoc, last_line_snoc, IH. destruct (line_nl z) eqn:E.
  - unfold flag_step. rewrite E. reflexivity.
  - rewrite flag_snoc. reflexivity.
Qed.

(* the python mirror and the streaming flag agree, on every labelled text *)
Lemma has_stmt_flag zs : has_stmt (last_line zs) = is_stmt (flag FFresh zs).
Proof. rewrite flag_last_line. apply has_stmt_flag_line. apply last_line_no_nl. Qed.

Definition tail_lf (zs : lz) : bytes :=
  if is_stmt (flag FFresh zs) && negb (ends_lf (outz zs)) then [x0a] else [].

Lemma normalize_eq s :
  normalize s = outz (combine (drop_bom s) (labels SNormal (drop_bom s)))
                ++ tail_lf (combine (drop_bom s) (labels SNormal (drop_bom s))).
Proof.
  unfold normalize, tail_lf. cbv zeta. rewrite has_stmt_flag. fold (outz (combine (drop_bom s) (labels SNormal (drop_bom s)))).
  destruct (is_stmt _ && negb _); [reflexivity|rewrite app_nil_r; reflexivity].
Qed.

(* a statement flag needs a kept byte *)
Lemma stmt_outz_nonempty zs f : f <> FStmt -> flag f zs = FStmt -> outz zs <> [].
Proof.
  revert f. induction zs as [|[c l] zs IH]; intros f Hf H; [cbn in H; congruence|].
  rewrite flag_cons in H. unfold outz. cbn [filter].
  destruct (kept (c, l)) eqn:K; [discriminate|].
  apply (IH (flag_step f (c, l))); [|exact H].
  unfold flag_step. unfold kept in K. cbn [fst snd] in *. apply negb_false_iff in K. apply andb_true_iff in K as [K1 K2].
  unfold line_nl. cbn [fst snd]. apply byte_eqb_eq in K1. subst c. cbn [byte_eqb Byte.eqb andb].
  change (byte_eqb x0d x0a) with false. cbn [andb].
  destruct f; try congruence. destruct (is_comment l); [discriminate|]. unfold blank. rewrite byte_eqb_refl, !orb_true_r. discriminate.
Qed.

(* ================================================================================================= *)
(* scanning                                                                                          *)
(* ================================================================================================= *)
Lemma labels_cons st c tl :
  labels st (c :: tl) = fst (step st c (c :: tl)) :: labels (snd (step st c (c :: tl))) tl.
Proof. cbn [labels]. destruct (step st c (c :: tl)); reflexivity. Qed.

Lemma labels_emit ls : forall next s r, length s = length ls ->
  labels (emit ls next) (s ++ r) = ls ++ labels next r.
Proof.
  induction ls as [|l ls IH]; intros next s r H.
  - destruct s; [reflexivity|discriminate].
  - destruct s as [|c s]; [discriminate|]. cbn [emit app]. rewrite labels_cons. cbn [step fst snd].
    rewrite IH by (cbn in H; lia). reflexivity.
Qed.

(* a text F-followed is scanned from SNormal to SNormal with the labels lab zs *)
Definition piece (F : bytes -> Prop) (zs : lz) : Prop :=
  forall r, F r -> labels SNormal (txt zs ++ r) = lab zs ++ labels SNormal r.

Definition anyf (r : bytes) : Prop := True.

Lemma piece_nil F : piece F [].
Proof. intros r _. reflexivity. Qed.

Lemma piece_weaken (F G : bytes -> Prop) zs : (forall r, G r -> F r) -> piece F zs -> piece G zs.
Proof. intros H P r Hr. apply P, H, Hr. Qed.

Lemma piece_app (F1 F2 : bytes -> Prop) z1 z2 :
  piece F1 z1 -> piece F2 z2 -> (forall r, F2 r -> F1 (txt z2 ++ r)) -> piece F2 (z1 ++ z2).
Proof.
  intros P1 P2 H r Hr. rewrite txt_app, lab_app, <- !app_assoc.
  rewrite P1 by (apply H, Hr). rewrite P2 by exact Hr. reflexivity.
Qed.

(* ---- bytes that are neither "#" nor a quote: state SNormal ignores them ------------------------------ *)
Definition nqb (b : byte) : bool := negb (byte_eqb b x23) && negb (byte_eqb b x22) && negb (byte_eqb b x27).

Lemma starts3_head q c tl : byte_eqb c q = false -> starts3 q (c :: tl) = false.
Proof. intro H. unfold starts3. destruct tl as [|a [|b tl]]; try reflexivity. rewrite H. reflexivity. Qed.

Lemma step_normal_nq c tl : nqb c = true -> step SNormal c (c :: tl) = (LNormal, SNormal).
Proof.
  unfold nqb. intro H. apply andb_true_iff in H as [H H3]. apply andb_true_iff in H as [H1 H2].
  apply negb_true_iff in H1, H2, H3. unfold step. rewrite H1, H2, H3.
  rewrite !starts3_head by assumption. reflexivity.
Qed.

Lemma labels_nq t r : forallb nqb t = true -> labels SNormal (t ++ r) = map (fun _ => LNormal) t ++ labels SNormal r.
Proof.
  induction t as [|c t IH]; [reflexivity|]. cbn [forallb]. intro H. apply andb_true_iff in H as [Hc Ht].
  cbn [app]. rewrite labels_cons, step_normal_nq by exact Hc. cbn [fst snd map app]. rewrite IH by exact Ht. reflexivity.
Qed.

Lemma piece_nq t : forallb nqb t = true -> piece anyf (tag LNormal t).
Proof. intros H r _. rewrite txt_tag, lab_tag. apply labels_nq, H. Qed.

(* plain bytes: additionally no CR and no LF *)
Definition plainb (b : byte) : bool :=
  nqb b && negb (byte_eqb b x0d) && negb (byte_eqb b x0a).
Definition plain (t : bytes) : Prop := forallb plainb t = true.

Lemma plain_app a b : plain a -> plain b -> plain (a ++ b).
Proof. unfold plain. intros Ha Hb. rewrite forallb_app, Ha, Hb. reflexivity. Qed.

Lemma plain_nq t : plain t -> forallb nqb t = true.
Proof. apply forallb_impl. intros b Hb. apply andb_true_iff in Hb as [Hb _]. apply andb_true_iff in Hb as [Hb _]. exact Hb. Qed.

Lemma plain_nocr t : plain t -> nocr t.
Proof. apply forallb_impl. intros b Hb. apply andb_true_iff in Hb as [Hb _]. apply andb_true_iff in Hb as [_ Hb]. exact Hb. Qed.

Lemma plain_no_nl l t : plain t -> no_nl (tag l t).
Proof.
  unfold plain, no_nl. induction t as [|b t IH]; [constructor|]. cbn [forallb]. intro H.
  apply andb_true_iff in H as [Hb Ht]. cbn [tag map]. constructor; [|apply IH, Ht].
  unfold line_nl. cbn [fst snd]. unfold plainb in Hb. apply andb_true_iff in Hb as [_ Hb].
  apply negb_true_iff in Hb. rewrite Hb. reflexivity.
Qed.

Lemma ml_no_nl l t : in_ml l = true -> no_nl (tag l t).
Proof.
  intro H. unfold no_nl. induction t as [|b t IH]; [constructor|]. cbn [tag map]. constructor; [|exact IH].
  unfold line_nl. cbn [fst snd]. rewrite H. apply andb_false_r.
Qed.

Lemma plain_ends_lf t : plain t -> ends_lf t = false.
Proof.
  intro H. destruct t as [|b t] using rev_ind; [reflexivity|]. rewrite ends_lf_snoc.
  unfold plain in H. rewrite forallb_app in H. apply andb_true_iff in H as [_ H]. cbn [forallb] in H.
  rewrite andb_true_r in H. unfold plainb in H. apply andb_true_iff in H as [_ H]. apply negb_true_iff in H. exact H.
Qed.

(* ================================================================================================= *)
(* the three kinds of pieces                                                                         *)
(* ================================================================================================= *)
Inductive kind : Set := CS | CB | CT.

(* CS: a statement part: from FFresh/FStmt to FStmt, the output is not empty and does not end in LF
   CB: blanks: no flag changes, the output does not end in LF
   CT: trivia (ws-comment-newline, array values): never ends inside a comment *)
Definition summ (k : kind) (zs : lz) (o : bytes) : Prop :=
  outz zs = o /\
  match k with
  | CS => (forall f, f <> FCmt -> flag f zs = FStmt) /\ o <> [] /\ ends_lf o = false
  | CB => (forall f, flag f zs = f) /\ ends_lf o = false
  | CT => forall f, f <> FCmt -> flag f zs <> FCmt
  end.

Definition til (k : kind) (F : bytes -> Prop) (t o : bytes) : Prop :=
  exists zs, txt zs = t /\ piece F zs /\ summ k zs o.

Definition mul (k1 k2 : kind) : kind :=
  match k1, k2 with
  | CB, k => k
  | k, CB => k
  | _, CS => CS
  | _, CT => CT
  end.

Lemma summ_sub k zs o : summ k zs o -> summ CT zs o.
Proof.
  destruct k; intros [Ho H]; (split; [exact Ho|]).
  - destruct H as (H & _). intros f Hf. rewrite H by exact Hf. discriminate.
  - destruct H as (H & _). intros f Hf. rewrite H. exact Hf.
  - exact H.
Qed.

Lemma summ_app k1 k2 z1 z2 o1 o2 : summ k1 z1 o1 -> summ k2 z2 o2 -> summ (mul k1 k2) (z1 ++ z2) (o1 ++ o2).
Proof.
  intros [Ho1 H1] [Ho2 H2]. split; [rewrite outz_app, Ho1, Ho2; reflexivity|].
  destruct k1, k2; cbn [mul].
  - (* S S *) destruct H1 as (F1 & N1 & E1), H2 as (F2 & N2 & E2). split; [|split].
    + intros f Hf. rewrite flag_app, F1 by exact Hf. apply F2. discriminate.
    + destruct o1; [congruence|discriminate].
    + apply ends_lf_app_false; assumption.
  - (* S B *) destruct H1 as (F1 & N1 & E1), H2 as (F2 & E2). split; [|split].
    + intros f Hf. rewrite flag_app, F2. apply F1, Hf.
    + destruct o1; [congruence|discriminate].
    + apply ends_lf_app_false; assumption.
  - (* S T *) destruct H1 as (F1 & N1 & E1). intros f Hf. rewrite flag_app, F1 by exact Hf. apply H2. discriminate.
  - (* B S *) destruct H1 as (F1 & E1), H2 as (F2 & N2 & E2). split; [|split].
    + intros f Hf. rewrite flag_app, F1. apply F2, Hf.
    + destruct o1; [exact N2|discriminate].
    + apply ends_lf_app_false; assumption.
  - (* B B *) destruct H1 as (F1 & E1), H2 as (F2 & E2). split.
    + intros f. rewrite flag_app, F1. apply F2.
    + apply ends_lf_app_false; assumption.
  - (* B T *) destruct H1 as (F1 & E1). intros f Hf. rewrite flag_app, F1. apply H2, Hf.
  - (* T S *) destruct H2 as (F2 & N2 & E2). split; [|split].
    + intros f Hf. rewrite flag_app. apply F2, H1, Hf.
    + destruct o1; [exact N2|discriminate].
    + rewrite ends_lf_app by exact N2. exact E2.
  - (* T B *) destruct H2 as (F2 & E2). intros f Hf. rewrite flag_app, F2. apply H1, Hf.
  - (* T T *) intros f Hf. rewrite flag_app. apply H2, H1, Hf.
Qed.

Lemma til_app k1 k2 (F1 F2 : bytes -> Prop) t1 t2 o1 o2 :
  til k1 F1 t1 o1 -> til k2 F2 t2 o2 -> (forall r, F2 r -> F1 (t2 ++ r)) ->
  til (mul k1 k2) F2 (t1 ++ t2) (o1 ++ o2).
Proof.
  intros (z1 & T1 & P1 & S1) (z2 & T2 & P2 & S2) H. exists (z1 ++ z2).
  split; [rewrite txt_app, T1, T2; reflexivity|]. split; [|apply summ_app; assumption].
  apply (piece_app F1 F2); [assumption|assumption|]. rewrite T2. exact H.
Qed.

(* the same with a first part that needs no follow condition *)
Lemma til_app_any k1 k2 (F2 : bytes -> Prop) t1 t2 o1 o2 :
  til k1 anyf t1 o1 -> til k2 F2 t2 o2 -> til (mul k1 k2) F2 (t1 ++ t2) (o1 ++ o2).
Proof. intros H1 H2. apply (til_app k1 k2 anyf F2); [assumption|assumption|]. intros; exact I. Qed.

Lemma til_weaken k (F G : bytes -> Prop) t o : (forall r, G r -> F r) -> til k F t o -> til k G t o.
Proof. intros H (zs & T & P & S). exists zs. split; [exact T|]. split; [apply (piece_weaken F G); assumption|exact S]. Qed.

Lemma til_any k (F : bytes -> Prop) t o : til k anyf t o -> til k F t o.
Proof. apply til_weaken. intros; exact I. Qed.

Lemma til_sub k F t o : til k F t o -> til CT F t o.
Proof. intros (zs & T & P & S). exists zs. split; [exact T|]. split; [exact P|apply (summ_sub k), S]. Qed.

Lemma til_nil F : til CB F [] [].
Proof.
  exists []. split; [reflexivity|]. split; [apply piece_nil|]. split; [reflexivity|]. split; [reflexivity|reflexivity].
Qed.

(* ================================================================================================= *)
(* quiet pieces: tokens — no byte in a comment, kept verbatim                                        *)
(* ================================================================================================= *)
Definition nocmt (zs : lz) : Prop := forallb (fun z => negb (is_comment (snd z))) zs = true.

Lemma nocmt_app a b : nocmt a -> nocmt b -> nocmt (a ++ b).
Proof. unfold nocmt. intros Ha Hb. rewrite forallb_app, Ha, Hb. reflexivity. Qed.

Lemma nocmt_tag l t : is_comment l = false -> nocmt (tag l t).
Proof. intro H. unfold nocmt, tag. induction t as [|b t IH]; [reflexivity|]. cbn [map forallb snd]. rewrite H, IH. reflexivity. Qed.

Definition qt (k : kind) (F : bytes -> Prop) (t : bytes) : Prop :=
  exists zs, txt zs = t /\ piece F zs /\ summ k zs t /\ nocmt zs.

Lemma qt_til k F t : qt k F t -> til k F t t.
Proof. intros (zs & T & P & S & _). exists zs. auto. Qed.

Lemma qt_app k1 k2 (F1 F2 : bytes -> Prop) t1 t2 :
  qt k1 F1 t1 -> qt k2 F2 t2 -> (forall r, F2 r -> F1 (t2 ++ r)) -> qt (mul k1 k2) F2 (t1 ++ t2).
Proof.
  intros (z1 & T1 & P1 & S1 & Q1) (z2 & T2 & P2 & S2 & Q2) H. exists (z1 ++ z2).
  split; [rewrite txt_app, T1, T2; reflexivity|]. split; [|split; [apply summ_app; assumption|apply nocmt_app; assumption]].
  apply (piece_app F1 F2); [assumption|assumption|]. rewrite T2. exact H.
Qed.

Lemma qt_app_any k1 k2 (F2 : bytes -> Prop) t1 t2 : qt k1 anyf t1 -> qt k2 F2 t2 -> qt (mul k1 k2) F2 (t1 ++ t2).
Proof. intros H1 H2. apply (qt_app k1 k2 anyf F2); [assumption|assumption|]. intros; exact I. Qed.

Lemma qt_weaken k (F G : bytes -> Prop) t : (forall r, G r -> F r) -> qt k F t -> qt k G t.
Proof. intros H (zs & T & P & S). exists zs. split; [exact T|]. split; [apply (piece_weaken F G); assumption|exact S]. Qed.

Lemma qt_any k (F : bytes -> Prop) t : qt k anyf t -> qt k F t.
Proof. apply qt_weaken. intros; exact I. Qed.

(* ================================================================================================= *)
(* leaves                                                                                            *)
(* ================================================================================================= *)

(* ---- whitespace ------------------------------------------------------------------------------------ *)
Lemma wschar_plain b : wschar b = true -> plainb b = true.
Proof. unfold plainb, nqb. cls. lia. Qed.

Lemma wschar_blank b : wschar b = true -> blank b = true.
Proof. unfold blank. cls. lia. Qed.

Lemma ws_plain w : ws_tok w -> plain w.
Proof. apply forallb_impl, wschar_plain. Qed.

Lemma flag_ws f w : ws_tok w -> flag f (tag LNormal w) = f.
Proof.
  unfold ws_tok, all. revert f. induction w as [|b w IH]; intros f H; [reflexivity|]. cbn [forallb] in H.
  apply andb_true_iff in H as [Hb Hw]. cbn [tag map]. rewrite flag_cons. fold (tag LNormal w).
  replace (flag_step f (b, LNormal)) with f; [apply IH, Hw|].
  unfold flag_step, line_nl. cbn [fst snd is_comment]. rewrite (wschar_blank b Hb).
  pose proof (wschar_plain b Hb) as Hp. unfold plainb in Hp. apply andb_true_iff in Hp as [_ Hp].
  apply negb_true_iff in Hp. rewrite Hp. cbn [andb]. destruct f; reflexivity.
Qed.

Lemma qt_ws w : ws_tok w -> qt CB anyf w.
Proof.
  intro H. exists (tag LNormal w). split; [apply txt_tag|]. split; [apply piece_nq, plain_nq, ws_plain, H|].
  split; [|apply nocmt_tag; reflexivity].
  split; [rewrite outz_tag_ncr by reflexivity; apply ncr_nocr, plain_nocr, ws_plain, H|].
  split; [intro f; apply flag_ws, H|apply plain_ends_lf, ws_plain, H].
Qed.

Lemma til_ws w : ws_tok w -> til CB anyf w w.
Proof. intro H. apply qt_til, qt_ws, H. Qed.

(* ---- plain tokens ---------------------------------------------------------------------------------- *)
Lemma qt_plain b t : plain (b :: t) -> blank b = false -> qt CS anyf (b :: t).
Proof.
  intros Hp Hb. exists (tag LNormal (b :: t)). split; [apply txt_tag|]. split; [apply piece_nq, plain_nq, Hp|].
  split; [|apply nocmt_tag; reflexivity].
  split; [rewrite outz_tag_ncr by reflexivity; apply ncr_nocr, plain_nocr, Hp|].
  split; [|split; [discriminate|apply plain_ends_lf, Hp]].
  intros f Hf. pose proof (plain_no_nl LNormal (b :: t) Hp) as Hn. cbn [tag map] in *. rewrite flag_cons.
  inversion Hn as [|z zs Hz Hzs]; subst. fold (tag LNormal t) in *.
  replace (flag_step f (b, LNormal)) with FStmt; [apply flag_stmt_no_nl, Hzs|].
  unfold flag_step. rewrite Hz. cbn [fst snd is_comment]. rewrite Hb. destruct f; congruence.
Qed.

Lemma til_plain b t : plain (b :: t) -> blank b = false -> til CS anyf (b :: t) (b :: t).
Proof. intros Hp Hb. apply qt_til, qt_plain; assumption. Qed.

(* one punctuation byte *)
Lemma qt_byte b : plainb b = true -> blank b = false -> qt CS anyf [b].
Proof. intros Hp Hb. apply qt_plain; [unfold plain; cbn [forallb]; rewrite Hp; reflexivity|exact Hb]. Qed.

(* ---- newline ------------------------------------------------------------------------------------------ *)
Lemma newline_nq nl : newline_tok nl -> forallb nqb nl = true.
Proof. intros [-> | ->]; reflexivity. Qed.

Lemma newline_outz nl : newline_tok nl -> outz (tag LNormal nl) = [x0a].
Proof. intros [-> | ->]; reflexivity. Qed.

Lemma newline_flag nl f : newline_tok nl -> flag f (tag LNormal nl) = FFresh.
Proof. intros [-> | ->]; destruct f; reflexivity. Qed.

Lemma til_newline nl : newline_tok nl -> til CT anyf nl [x0a].
Proof.
  intro H. exists (tag LNormal nl). split; [apply txt_tag|]. split; [apply piece_nq, newline_nq, H|].
  split; [apply newline_outz, H|]. intros f _. rewrite newline_flag by exact H. discriminate.
Qed.

(* ---- comments ----------------------------------------------------------------------------------------- *)
(* the end of a line: the end of the text or a newline *)
Definition lendf (r : bytes) : Prop := r = [] \/ exists nl r', newline_tok nl /\ r = nl ++ r'.

Lemma non_eol_plainish b : non_eol b = true -> byte_eqb b x0d = false /\ byte_eqb b x0a = false.
Proof. cls. lia. Qed.

Lemma step_comment_in c tl : non_eol c = true -> step SComment c (c :: tl) = (LComment, SComment).
Proof.
  intro H. destruct (non_eol_plainish c H) as [H1 H2]. unfold step. rewrite H1, H2. reflexivity.
Qed.

Lemma labels_comment_end r : lendf r -> labels SComment r = labels SNormal r.
Proof.
  intros [-> | (nl & r' & [-> | ->] & ->)]; [reflexivity| |].
  - cbn [app]. rewrite !labels_cons. reflexivity.
  - cbn [app]. rewrite !labels_cons. reflexivity.
Qed.

Lemma labels_comment_body u r : all non_eol u -> lendf r ->
  labels SComment (u ++ r) = map (fun _ => LComment) u ++ labels SNormal r.
Proof.
  unfold all. intros Hu Hr. induction u as [|c u IH]; [apply labels_comment_end, Hr|].
  cbn [forallb] in Hu. apply andb_true_iff in Hu as [Hc Hu]. cbn [app].
  rewrite labels_cons, step_comment_in by exact Hc. cbn [fst snd map app]. rewrite IH by exact Hu. reflexivity.
Qed.

Lemma piece_comment c : comment_tok c -> piece lendf (tag LComment c).
Proof.
  intros (u & -> & Hu) r Hr. rewrite txt_tag, lab_tag. cbn [app map]. rewrite labels_cons.
  assert (E : step SNormal x23 (x23 :: u ++ r) = (LComment, SComment)) by reflexivity.
  rewrite E. cbn [fst snd]. rewrite labels_comment_body by assumption. reflexivity.
Qed.

Lemma comment_nocrlf c : comment_tok c -> forallb (fun b => negb (byte_eqb b x0d) && negb (byte_eqb b x0a)) c = true.
Proof.
  intros (u & -> & Hu). cbn [forallb]. change (negb (byte_eqb x23 x0d) && negb (byte_eqb x23 x0a)) with true. cbn [andb].
  revert Hu. apply forallb_impl. intros b Hb. destruct (non_eol_plainish b Hb) as [-> ->]. reflexivity.
Qed.

Lemma nocrlf_nocr c : forallb (fun b => negb (byte_eqb b x0d) && negb (byte_eqb b x0a)) c = true -> nocr c.
Proof. apply forallb_impl. intros b Hb. apply andb_true_iff in Hb as [Hb _]. exact Hb. Qed.

Lemma nocrlf_no_nl l c : forallb (fun b => negb (byte_eqb b x0d) && negb (byte_eqb b x0a)) c = true -> no_nl (tag l c).
Proof.
  unfold no_nl. induction c as [|b c IH]; [constructor|]. cbn [forallb]. intro H. apply andb_true_iff in H as [Hb Hc].
  apply andb_true_iff in Hb as [_ Hb]. apply negb_true_iff in Hb. cbn [tag map]. constructor; [|apply IH, Hc].
  unfold line_nl. cbn [fst snd]. rewrite Hb. reflexivity.
Qed.

Lemma nocrlf_ends_lf c : forallb (fun b => negb (byte_eqb b x0d) && negb (byte_eqb b x0a)) c = true -> ends_lf c = false.
Proof.
  intro H. destruct c as [|b c] using rev_ind; [reflexivity|]. rewrite ends_lf_snoc.
  rewrite forallb_app in H. apply andb_true_iff in H as [_ H]. cbn [forallb] in H.
  rewrite andb_true_r in H. apply andb_true_iff in H as [_ H]. apply negb_true_iff in H. exact H.
Qed.

Lemma comment_outz c : comment_tok c -> outz (tag LComment c) = c.
Proof. intro H. rewrite outz_tag_ncr by reflexivity. apply ncr_nocr, nocrlf_nocr, comment_nocrlf, H. Qed.

Lemma comment_no_nl c : comment_tok c -> no_nl (tag LComment c).
Proof. intro H. apply nocrlf_no_nl, comment_nocrlf, H. Qed.

Lemma comment_flag_fresh c : comment_tok c -> flag FFresh (tag LComment c) = FCmt.
Proof.
  intro H. pose proof (comment_no_nl c H) as Hn. destruct H as (u & -> & Hu). cbn [tag map] in *.
  inversion Hn as [|z zs Hz Hzs]; subst. rewrite flag_cons. unfold flag_step. rewrite Hz. cbn [snd is_comment].
  apply flag_cmt_no_nl, Hzs.
Qed.

(* ---- ws-comment-newline ---------------------------------------------------------------------------------- *)
Lemma lendf_newline nl r : newline_tok nl -> lendf (nl ++ r).
Proof. intro H. right. exists nl, r. auto. Qed.

Lemma til_wscn w : wscn_tok w -> til CT anyf w (ncr w).
Proof.
  induction 1 as [|b t Hb Ht IH|c nl t Hc Hn Ht IH].
  - apply (til_sub CB), til_nil.
  - change (b :: t) with ([b] ++ t). rewrite ncr_app.
    assert (Hw : ws_tok [b]) by (unfold ws_tok, all; cbn [forallb]; rewrite Hb; reflexivity).
    replace (ncr [b]) with [b] by (symmetry; apply ncr_nocr, plain_nocr, ws_plain, Hw).
    apply (til_app_any CB CT); [apply til_ws, Hw|exact IH].
  - rewrite !ncr_app. replace (ncr nl) with [x0a] by (destruct Hn as [-> | ->]; reflexivity).
    destruct IH as (zt & Tt & Pt & Ot & Ft).
    assert (Pn : piece anyf (tag LNormal nl ++ zt)).
    { apply (piece_app anyf anyf); [apply piece_nq, newline_nq, Hn|exact Pt|]. intros; exact I. }
    destruct Hc as [-> | Hc].
    + exists (tag LNormal nl ++ zt). split; [rewrite txt_app, txt_tag, Tt; reflexivity|]. split; [exact Pn|].
      split; [rewrite outz_app, newline_outz, Ot by exact Hn; reflexivity|].
      intros f _. rewrite flag_app, newline_flag by exact Hn. apply Ft. discriminate.
    + replace (ncr c) with c by (symmetry; apply ncr_nocr, nocrlf_nocr, comment_nocrlf, Hc).
      exists (tag LComment c ++ tag LNormal nl ++ zt).
      split; [rewrite !txt_app, !txt_tag, Tt; reflexivity|]. split.
      * apply (piece_app lendf anyf); [apply piece_comment, Hc|exact Pn|]. intros r _.
        rewrite txt_app, txt_tag, <- app_assoc. apply lendf_newline, Hn.
      * split; [rewrite !outz_app, comment_outz, newline_outz, Ot by assumption; reflexivity|].
        intros f _. rewrite !flag_app, newline_flag by exact Hn. apply Ft. discriminate.
Qed.
