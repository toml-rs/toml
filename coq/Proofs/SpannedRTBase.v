(* Proofs/SpannedRTBase.v — C14, serde half: lock-step relation between results, induction principle
   for types with Spanned wrappers, and the facts relating the span tree to its stripped tree. *)
From TV Require Import Base.Prelude Spec.SerdeData Model.De Model.SerdeSpanned.

(* both fail, or both succeed with related values: convertible with `lockstep` of Proofs/RoutesRel.v,
   whose lemmas apply to it *)
Definition relR {A B} (R : A -> B -> Prop) (r1 : result A) (r2 : result B) : Prop :=
  match r1, r2 with
  | Ok a, Ok b => R a b
  | Err _, Err _ => True
  | _, _ => False
  end.

Lemma relR_err {A B} (R : A -> B -> Prop) e1 e2 : relR R (Err e1) (Err e2).
Proof. exact I. Qed.

(* ---- induction principle ---- *)
Section StyInd.
  Variable P : sty -> Prop.
  Variable Q : svariant -> Prop.
  Hypothesis HPlain : forall t, P (YPlain t).
  Hypothesis HSpanned : forall t, P t -> P (YSpanned t).
  Hypothesis HOpt : forall t, P t -> P (YOpt t).
  Hypothesis HSeq : forall t, P t -> P (YSeq t).
  Hypothesis HTuple : forall ts, Forall P ts -> P (YTuple ts).
  Hypothesis HMap : forall k v, P k -> P v -> P (YMap k v).
  Hypothesis HStruct : forall n fs, Forall (fun ft => P (snd ft)) fs -> P (YStruct n fs).
  Hypothesis HNewtype : forall n t, P t -> P (YNewtype n t).
  Hypothesis HTupleStruct : forall n ts, Forall P ts -> P (YTupleStruct n ts).
  Hypothesis HEnum : forall n vs, Forall (fun nv => Q (snd nv)) vs -> P (YEnum n vs).
  Hypothesis HVUnit : Q YVUnit.
  Hypothesis HVNewtype : forall t, P t -> Q (YVNewtype t).
  Hypothesis HVTuple : forall ts, Forall P ts -> Q (YVTuple ts).
  Hypothesis HVStruct : forall fs, Forall (fun ft => P (snd ft)) fs -> Q (YVStruct fs).

  Fixpoint sty_ind2 (t : sty) : P t :=
    match t with
    | YPlain t0 => HPlain t0
    | YSpanned t' => HSpanned t' (sty_ind2 t')
    | YOpt t' => HOpt t' (sty_ind2 t')
    | YSeq t' => HSeq t' (sty_ind2 t')
    | YTuple ts =>
      HTuple ts ((fix go (l : list sty) : Forall P l :=
                    match l with [] => Forall_nil _ | x :: l' => Forall_cons x (sty_ind2 x) (go l') end) ts)
    | YMap k v => HMap k v (sty_ind2 k) (sty_ind2 v)
    | YStruct n fs =>
      HStruct n fs ((fix go (l : list (bytes * sty)) : Forall (fun ft => P (snd ft)) l :=
                       match l with
                       | [] => Forall_nil _
                       | x :: l' => Forall_cons x (match x return P (snd x) with (_, t') => sty_ind2 t' end) (go l')
                       end) fs)
    | YNewtype n t' => HNewtype n t' (sty_ind2 t')
    | YTupleStruct n ts =>
      HTupleStruct n ts ((fix go (l : list sty) : Forall P l :=
                            match l with [] => Forall_nil _ | x :: l' => Forall_cons x (sty_ind2 x) (go l') end) ts)
    | YEnum n vs =>
      HEnum n vs ((fix go (l : list (bytes * svariant)) : Forall (fun nv => Q (snd nv)) l :=
                     match l with
                     | [] => Forall_nil _
                     | x :: l' => Forall_cons x (match x return Q (snd x) with (_, var) => svariant_ind2 var end) (go l')
                     end) vs)
    end
  with svariant_ind2 (var : svariant) : Q var :=
    match var with
    | YVUnit => HVUnit
    | YVNewtype t => HVNewtype t (sty_ind2 t)
    | YVTuple ts =>
      HVTuple ts ((fix go (l : list sty) : Forall P l :=
                     match l with [] => Forall_nil _ | x :: l' => Forall_cons x (sty_ind2 x) (go l') end) ts)
    | YVStruct fs =>
      HVStruct fs ((fix go (l : list (bytes * sty)) : Forall (fun ft => P (snd ft)) l :=
                      match l with
                      | [] => Forall_nil _
                      | x :: l' => Forall_cons x (match x return P (snd x) with (_, t') => sty_ind2 t' end) (go l')
                      end) fs)
    end.
End StyInd.

(* ---- the stripped tree ---- *)
Definition strip_entries (es : list (bytes * ospan * stree)) : list (bytes * tomlval) :=
  map (fun e => (fst (fst e), strip (snd e))) es.

Lemma strip_tab sp es : strip (NTab sp es) = VTab (strip_entries es). Proof. reflexivity. Qed.
Lemma strip_arr sp xs : strip (NArr sp xs) = VArr (map strip xs). Proof. reflexivity. Qed.

Lemma strip_keys es : map fst (strip_entries es) = map (fun e => fst (fst e)) es.
Proof. unfold strip_entries. rewrite map_map. reflexivity. Qed.

Lemma tab_get_strip k es : tab_get k (strip_entries es) = optmap strip (stab_get k es).
Proof.
  induction es as [|[[k' sp] x] es IH]; simpl; [reflexivity|]. destruct (bytes_eqb k' k); [reflexivity|exact IH].
Qed.

Lemma dup_hit_strip names es : dup_field_hit names (strip_entries es) = sdup_field_hit names es.
Proof. unfold dup_field_hit, sdup_field_hit. rewrite strip_keys. reflexivity. Qed.

Lemma keys_ok_strip names es : struct_keys_ok names (strip_entries es) = sstruct_keys_ok names es.
Proof.
  unfold struct_keys_ok, sstruct_keys_ok, strip_entries.
  induction es as [|e es IH]; simpl; [reflexivity|]. rewrite IH. reflexivity.
Qed.

Lemma index_keys_strip es : forall i, index_keys i (strip_entries es) = optmap (map strip) (sindex_keys i es).
Proof.
  induction es as [|[[k sp] x] es IH]; intro i; simpl; [reflexivity|].
  destruct (parse_usize k) as [j|]; [|reflexivity]. destruct (j =? i)%N; [|reflexivity].
  rewrite IH. destruct (sindex_keys (i + 1) es); reflexivity.
Qed.

Lemma all_spans_here s : all_spans s = true -> has_span (span_of s) = true.
Proof. destruct s; simpl; intro H; apply andb_true_iff in H as [H _]; exact H. Qed.

Lemma all_spans_leaf sp x : all_spans (NLeaf sp x) = true -> is_leaf x = true.
Proof. simpl. intro H. apply andb_true_iff in H as [_ H]. exact H. Qed.

Lemma empty_strip y : all_spans y = true -> empty_container (strip y) = sempty_container y.
Proof.
  destruct y as [sp x|sp [|? ?]|sp [|? ?]]; try reflexivity.
  intro H. apply all_spans_leaf in H. destruct x; try discriminate H; reflexivity.
Qed.

Lemma all_spans_arr sp xs : all_spans (NArr sp xs) = true -> has_span sp = true /\ Forall (fun x => all_spans x = true) xs.
Proof.
  simpl. intro H. apply andb_true_iff in H as [H1 H2]. split; [exact H1|]. apply Forall_forall. rewrite forallb_forall in H2. exact H2.
Qed.

Lemma all_spans_tab sp es : all_spans (NTab sp es) = true ->
  has_span sp = true /\ Forall (fun e => has_span (snd (fst e)) = true /\ all_spans (snd e) = true) es.
Proof.
  simpl. intro H. apply andb_true_iff in H as [H1 H2]. split; [exact H1|]. apply Forall_forall. rewrite forallb_forall in H2.
  intros e He. specialize (H2 e He). apply andb_true_iff in H2. exact H2.
Qed.

Lemma has_span_some o : has_span o = true -> exists sp, o = Some sp.
Proof. destruct o; [eauto|discriminate]. Qed.
