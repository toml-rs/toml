(* Proofs/SpansLex.v — C14: keys (key.rs) and line trivia record spans inside the text they consumed.
   Exact windows: the repr of a simple key is exactly the window of its token. *)
From TV Require Import Base.Prelude Base.Winnow Gen.Consts.
From TV Require Import Model.Trivia Model.Strings Model.Tree Model.Parse.
From TV Require Import Proofs.NoPanicBase Proofs.NoPanicLex Proofs.NoPanicState Proofs.SpansDefs Proofs.SpansBase.
Require Import Lia ZifyBool ZifyN ZifyNat.

Ltac binds E :=
  repeat (let a := fresh "a" in let j := fresh "j" in let E1 := fresh "E" in
          apply bind_inv in E as (a & j & E1 & E)).
Ltac pos_le E :=
  match type of E with
  | ?p ?i = Ok _ ?i' =>
    let M := fresh "M" in assert (M : (pos i <= pos i')%N) by (eapply mono_le; [|exact E]; np)
  end.

(* ---- sequence helpers ------------------------------------------------------------------------------- *)
Lemma winP_terminated {A B} (Q : N -> N -> A -> Prop) (p : parser A) (q : parser B) :
  mono p -> mono q -> winP Q p -> winP Q (terminated p q).
Proof.
  intros Mp Mq Hp lo hi i a i' E L U. unfold terminated in E. binds E. apply ret_inv in E as [-> ->].
  pose proof (mono_le _ _ _ _ Mq E1). eapply Hp; [exact E0|exact L|lia].
Qed.
Lemma winP_preceded {A B} (Q : N -> N -> B -> Prop) (p : parser A) (q : parser B) :
  mono p -> winP Q q -> winP Q (preceded p q).
Proof. intros Mp Hq. unfold preceded. apply winP_bind_r; [exact Mp|]. intros _. exact Hq. Qed.
Lemma winP_delimited {A B D} (Q : N -> N -> B -> Prop) (p : parser A) (q : parser B) (r : parser D) :
  mono p -> mono q -> mono r -> winP Q q -> winP Q (delimited p q r).
Proof.
  intros Mp Mq Mr Hq lo hi i b i' E L U. unfold delimited in E. binds E. apply ret_inv in E as [-> ->].
  pose proof (mono_le _ _ _ _ Mp E0). pose proof (mono_le _ _ _ _ Mr E2). eapply Hq; [exact E1|lia|lia].
Qed.
Lemma winP_pair_ {A B} (Q : N -> N -> A -> Prop) (R : N -> N -> B -> Prop) (p : parser A) (q : parser B) :
  mono p -> mono q -> winP Q p -> winP R q -> winP (fun lo hi x => Q lo hi (fst x) /\ R lo hi (snd x)) (pair_ p q).
Proof.
  intros Mp Mq Hp Hq lo hi i x i' E L U. unfold pair_ in E. binds E. apply ret_inv in E as [-> ->]. cbn [fst snd].
  pose proof (mono_le _ _ _ _ Mp E0). pose proof (mono_le _ _ _ _ Mq E1).
  split; [eapply Hp; [exact E0|lia|lia]|eapply Hq; [exact E1|lia|lia]].
Qed.

(* ---- trivia --------------------------------------------------------------------------------------------- *)
Lemma line_trailing_win : winP (fun lo hi sp => sp_in lo hi sp = true) line_trailing.
Proof. unfold line_trailing. apply winP_terminated; [np|np|]. apply winP_span_. np. Qed.

(* ---- simple_key ------------------------------------------------------------------------------------------ *)
Definition simple_key_body : parser bytes :=
  b <- peek any ;;
  if byte_eqb b QUOTATION_MARK then basic_string
  else if byte_eqb b APOSTROPHE then literal_string
  else unquoted_key.
Lemma simple_key_eq : simple_key = pmap (fun '(k, sp) => (raw_with_span sp, k)) (with_span (context simple_key_body)).
Proof. reflexivity. Qed.
Lemma simple_key_body_mono : mono simple_key_body. Proof. unfold simple_key_body. np. Qed.
Lemma simple_key_body_progress : progress simple_key_body. Proof. unfold simple_key_body. np. Qed.

(* the repr of a simple key is exactly the window of the key token, and the window is not empty *)
Lemma simple_key_exact i r k i' :
  simple_key i = Ok (r, k) i' ->
  r = RSpanned (pos i) (pos i') /\ (pos i < pos i')%N /\ simple_key_body i = Ok k i'.
Proof.
  rewrite simple_key_eq. intro E. apply pmap_inv in E as ([k0 sp] & E & X). inversion X; subst r k0.
  apply with_span_inv in E as (x' & E & S). injection S as <- ->. apply context_inv in E.
  pose proof (simple_key_body_progress _ _ _ E) as G. pose proof (simple_key_body_mono _ _ _ E) as M.
  assert (P : (pos i < pos i')%N).
  { destruct M as (t & R & P & _). rewrite R, app_length in G. lia. }
  repeat split; [|exact P|exact E]. unfold raw_with_span; cbn [fst snd].
  destruct (pos i =? pos i')%N eqn:Q; [lia|reflexivity].
Qed.
Lemma simple_key_win : winP (fun lo hi x => raw_in lo hi (fst x) = true) simple_key.
Proof.
  intros lo hi i [r k] i' E L U. apply simple_key_exact in E as (-> & P & _). cbn [fst].
  unfold raw_in; cbn [raw_span osp_in]. unfold sp_in; cbn [fst snd]. lia.
Qed.

(* ---- key_part / key ---------------------------------------------------------------------------------------- *)
(* a key as `key_part` leaves it: repr = window of its token, dotted decor = the blanks around it *)
Lemma key_part_exact i k i' :
  key_part i = Ok k i' ->
  exists a b, (pos i <= a)%N /\ (a < b)%N /\ (b <= pos i')%N
              /\ k_repr k = Some (RSpanned a b) /\ k_leaf k = decor_default
              /\ k_dotted k = decor_new (raw_with_span (pos i, a)) (raw_with_span (b, pos i')).
Proof.
  unfold key_part. intro E. binds E. destruct a0 as [r kk]. binds E. apply ret_inv in E as [-> ->].
  apply span_inv in E0 as (x0 & E0 & ->). apply span_inv in E2 as (x2 & E2 & ->).
  apply simple_key_exact in E1 as (-> & P & _). pos_le E0. pos_le E2.
  exists (pos j), (pos j0). cbn [k_repr k_leaf k_dotted]. repeat split; auto.
Qed.
Lemma key_part_win : winP (fun lo hi k => key_in lo hi k = true) key_part.
Proof.
  intros lo hi i k i' E L U. apply key_part_exact in E as (a & b & H1 & H2 & H3 & R & Lf & D).
  unfold key_in. rewrite R, Lf, D. cbn [oraw_in]. apply andb3. repeat split.
  - unfold raw_in; cbn [raw_span osp_in]. unfold sp_in; cbn [fst snd]. lia.
  - apply decor_in_new; apply raw_with_span_in; unfold sp_in; cbn [fst snd]; lia.
Qed.

Definition keys_in (lo hi : N) (l : list key) : bool := forallb (key_in lo hi) l.

Lemma key_in_set_leaf lo hi k d : key_in lo hi k = true -> decor_in lo hi d = true -> key_in lo hi (set_leaf k d) = true.
Proof.
  unfold key_in, set_leaf; cbn [k_repr k_leaf k_dotted]. intros H Hd. apply andb3 in H as (H1 & _ & H3).
  rewrite H1, Hd, H3. reflexivity.
Qed.
Lemma key_in_set_dotted_prefix lo hi k : key_in lo hi k = true -> key_in lo hi (set_dotted_prefix k REmpty) = true.
Proof.
  unfold key_in, set_dotted_prefix; cbn [k_repr k_leaf k_dotted]. intros H. apply andb3 in H as (H1 & H2 & H3).
  rewrite H1, H2. unfold decor_in in *; cbn [d_prefix d_suffix oraw_in]. apply andb_true_iff in H3 as [_ H3].
  rewrite H3. reflexivity.
Qed.
Lemma key_in_set_dotted_suffix lo hi k : key_in lo hi k = true -> key_in lo hi (set_dotted_suffix k REmpty) = true.
Proof.
  unfold key_in, set_dotted_suffix; cbn [k_repr k_leaf k_dotted]. intros H. apply andb3 in H as (H1 & H2 & H3).
  rewrite H1, H2. unfold decor_in in *; cbn [d_prefix d_suffix oraw_in]. apply andb_true_iff in H3 as [H3 _].
  rewrite H3. reflexivity.
Qed.
Lemma key_in_dotted lo hi k : key_in lo hi k = true ->
  oraw_in lo hi (d_prefix (k_dotted k)) = true /\ oraw_in lo hi (d_suffix (k_dotted k)) = true.
Proof. unfold key_in, decor_in. intro H. apply andb3 in H as (_ & _ & H). apply andb_true_iff in H. exact H. Qed.

Lemma keys_in_rev lo hi l : keys_in lo hi (rev l) = keys_in lo hi l.
Proof.
  unfold keys_in. induction l as [|a l IH]; [reflexivity|]. cbn [rev forallb]. rewrite forallb_app, IH. cbn [forallb].
  rewrite andb_true_r. apply andb_comm.
Qed.

(* the decor shuffle at the end of `key` moves raw strings between keys of the same path *)
Lemma fix_key_path_in lo hi path p :
  keys_in lo hi path = true -> fix_key_path path = Some p -> keys_in lo hi p = true.
Proof.
  unfold fix_key_path. destruct path as [|first tl]; [discriminate|]. intros H E.
  cbn [keys_in forallb] in H. apply andb_true_iff in H as [Hf Ht].
  set (leaf_pre := match d_prefix (k_dotted first) with Some p0 => p0 | None => REmpty end) in *.
  set (first' := match d_prefix (k_dotted first) with Some _ => set_dotted_prefix first REmpty | None => first end) in *.
  assert (Hlp : raw_in lo hi leaf_pre = true).
  { subst leaf_pre. destruct (key_in_dotted _ _ _ Hf) as [H1 _]. destruct (d_prefix (k_dotted first)); [exact H1|reflexivity]. }
  assert (Hf' : key_in lo hi first' = true).
  { subst first'. destruct (d_prefix (k_dotted first)); [apply key_in_set_dotted_prefix|]; exact Hf. }
  assert (Hall : keys_in lo hi (rev (first' :: tl)) = true).
  { rewrite keys_in_rev. cbn [keys_in forallb]. rewrite Hf'. exact Ht. }
  destruct (rev (first' :: tl)) as [|last rinit]; [discriminate|]. inversion E; subst p. clear E.
  cbn [keys_in forallb] in Hall. apply andb_true_iff in Hall as [Hl Hr].
  unfold keys_in. rewrite forallb_app, forallb_rev, Hr. cbn [forallb andb]. rewrite andb_true_r.
  apply key_in_set_leaf.
  - destruct (d_suffix (k_dotted last)); [apply key_in_set_dotted_suffix|]; exact Hl.
  - apply decor_in_new; [exact Hlp|]. destruct (key_in_dotted _ _ _ Hl) as [_ H2].
    destruct (d_suffix (k_dotted last)); [exact H2|reflexivity].
Qed.

Lemma key_raw_win : winP (fun lo hi l => keys_in lo hi l = true) key_raw.
Proof.
  unfold key_raw. eapply winP_try_map; [apply winP_context, winP_separated1; [np|np|apply key_part_win]|].
  intros lo hi l b H E. cbn beta in H. destruct (check_depth _); inversion E; subst. apply forallb_Forall, H.
Qed.
Lemma key_win : winP (fun lo hi l => keys_in lo hi l = true) key_.
Proof.
  rewrite key_eq. eapply winP_bind; [apply key_raw_mono| |apply key_raw_win|].
  - intro path. destruct (fix_key_path path); np.
  - intros path lo hi i p i' E L U H. destruct (fix_key_path path) as [p0|] eqn:F; [|discriminate].
    apply ret_inv in E as [-> ->]. eapply fix_key_path_in; eauto.
Qed.

Lemma pop_key_in lo hi kp path k :
  keys_in lo hi kp = true -> pop_key kp = Some (path, k) -> keys_in lo hi path = true /\ key_in lo hi k = true.
Proof.
  unfold pop_key. intros H E. rewrite <- keys_in_rev in H. destruct (rev kp) as [|last rinit]; [discriminate|].
  inversion E; subst. cbn [keys_in forallb] in H. apply andb_true_iff in H as [H1 H2]. rewrite keys_in_rev. auto.
Qed.
