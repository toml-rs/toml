(* Proofs/CanonicalRead.v — reading the canonical document back (Spec/Canonical.v read_back):
   for a value with distinct keys the document is accepted, and the tree it builds is `expect`:
   every table holds its plain values, its mixed arrays, its arrays of tables and its sub-tables,
   in this order, each group in map order. *)
From TV Require Import Base.Prelude Model.TomlValue Spec.Canonical.
From TV Require Import Proofs.CanonicalBase Proofs.CanonicalEmit.

(** * keys *)

Lemma key_in_spec {A} k (m : list (bytes * A)) : key_in k m = true <-> In k (map fst m).
Proof.
  unfold key_in. rewrite existsb_exists. split.
  - intros (kv & Hin & E). apply bytes_eqb_eq in E. subst. apply in_map. exact Hin.
  - intro H. apply in_map_iff in H as (kv & E & Hin). exists kv. split; [exact Hin|]. apply bytes_eqb_eq. exact E.
Qed.

Lemma key_in_false {A} k (m : list (bytes * A)) : key_in k m = false <-> ~ In k (map fst m).
Proof. rewrite <- key_in_spec. destruct (key_in k m); split; congruence. Qed.

Lemma keys_distinct_spec {A} (m : list (bytes * A)) : keys_distinct m = true <-> NoDup (map fst m).
Proof.
  induction m as [|[k x] r IH]; cbn [keys_distinct map fst].
  - split; [constructor|reflexivity].
  - rewrite andb_true_iff, negb_true_iff, key_in_false, IH. split.
    + intros [A1 A2]. constructor; assumption.
    + intro H. inversion H; subst. split; assumption.
Qed.

Lemma find_key_none k (m : list (bytes * rnode)) :
  ~ In k (map fst m) -> find (fun kv => bytes_eqb (fst kv) k) m = None.
Proof.
  induction m as [|[k' x] r IH]; [reflexivity|]. cbn [map fst In find]. intro H.
  destruct (bytes_eqb k' k) eqn:E.
  - apply bytes_eqb_eq in E. subst. exfalso. apply H. left. reflexivity.
  - apply IH. intro. apply H. right. assumption.
Qed.

Lemma rlookup_none k m : ~ In k (map fst m) -> rlookup k m = None.
Proof. intro H. unfold rlookup. rewrite (find_key_none k m H). reflexivity. Qed.

Lemma rset_new k n m : ~ In k (map fst m) -> rset k n m = m ++ [(k, n)].
Proof. intro H. unfold rset. apply key_in_false in H. rewrite H. reflexivity. Qed.

Lemma rlookup_app_new k n m : ~ In k (map fst m) -> rlookup k (m ++ [(k, n)]) = Some n.
Proof.
  intro H. unfold rlookup. induction m as [|[k' x] r IH]; cbn [app find fst].
  - rewrite bytes_eqb_refl. reflexivity.
  - cbn [map fst In] in H. destruct (bytes_eqb k' k) eqn:E.
    + apply bytes_eqb_eq in E. subst. exfalso. apply H. left. reflexivity.
    + apply IH. intro. apply H. right. assumption.
Qed.

Lemma rlookup_rset k n m : rlookup k (rset k n m) = Some n.
Proof.
  unfold rset. destruct (key_in k m) eqn:E.
  - unfold rlookup. induction m as [|[k' x] r IH]; [discriminate|].
    cbn [key_in existsb fst] in E. cbn [map fst]. destruct (bytes_eqb k' k) eqn:F.
    + cbn [find fst]. rewrite F. reflexivity.
    + cbn [find fst]. rewrite F. apply IH. exact E.
  - apply rlookup_app_new. apply key_in_false. exact E.
Qed.

Lemma key_in_rset k n m : key_in k (rset k n m) = true.
Proof.
  unfold rset. destruct (key_in k m) eqn:E.
  - unfold key_in in *. induction m as [|[k' x] r IH]; [discriminate|].
    cbn [existsb fst map] in *. destruct (bytes_eqb k' k) eqn:F; cbn [fst]; rewrite F; [reflexivity|].
    apply IH. exact E.
  - unfold key_in. rewrite existsb_app. cbn [existsb fst]. rewrite bytes_eqb_refl. apply orb_true_r.
Qed.

Lemma rset_rset k n n' m : rset k n' (rset k n m) = rset k n' m.
Proof.
  unfold rset at 1. rewrite key_in_rset. unfold rset. destruct (key_in k m) eqn:E.
  - rewrite map_map. apply map_ext. intros [k' x]. cbn [fst].
    destruct (bytes_eqb k' k) eqn:F; cbn [fst]; rewrite F; reflexivity.
  - rewrite map_app. cbn [map fst]. rewrite bytes_eqb_refl. f_equal.
    apply key_in_false in E. induction m as [|[k' x] r IH]; [reflexivity|].
    cbn [map fst In] in *. destruct (bytes_eqb k' k) eqn:F.
    + apply bytes_eqb_eq in F. subst. exfalso. apply E. left. reflexivity.
    + f_equal. apply IH. intro. apply E. right. assumption.
Qed.

(** * key/value lines *)

Definition line_rnode (kv : bytes * iv) : bytes * rnode := (fst kv, RVal (value_of (snd kv))).

Lemma add_lines_ok lines : forall m,
  NoDup (map fst lines) -> (forall k, In k (map fst lines) -> ~ In k (map fst m)) ->
  Forall (fun kv => iv_ok (snd kv) = true) lines ->
  add_lines lines m = Some (m ++ map line_rnode lines).
Proof.
  induction lines as [|[k v] r IH]; intros m ND Dis Ok; cbn [add_lines map].
  - rewrite app_nil_r. reflexivity.
  - cbn [map fst] in ND, Dis. inversion ND as [|? ? Hk ND']; subst. inversion Ok as [|? ? Hv Ok']; subst.
    cbn [snd] in Hv. rewrite Hv.
    assert (E : key_in k m = false) by (apply key_in_false; apply Dis; left; reflexivity).
    rewrite E. cbn [orb negb].
    rewrite (IH (m ++ [(k, RVal (value_of v))]) ND').
    + rewrite <- app_assoc. reflexivity.
    + intros k' Hin. rewrite map_app, in_app_iff. cbn [map fst In]. intros [H|[H|[]]].
      * apply (Dis k'); [right; exact Hin|exact H].
      * subst. contradiction.
    + exact Ok'.
Qed.

(** * folding sections into a node / into the entries of a table *)

Definition place_sec (n : option rnode) (s : section) : option rnode :=
  place n (s_path s) (s_kind s) (s_lines s).

(* outer None = the document is refused *)
Fixpoint fold_place (n : option rnode) (d : list section) : option (option rnode) :=
  match d with
  | [] => Some n
  | s :: d' => match place_sec n s with Some n' => fold_place (Some n') d' | None => None end
  end.

Definition place_in (m : list (bytes * rnode)) (s : section) : option (list (bytes * rnode)) :=
  match s_path s with
  | k :: p' => optmap (fun n' => rset k n' m) (place (rlookup k m) p' (s_kind s) (s_lines s))
  | [] => None
  end.

Fixpoint fold_in (m : list (bytes * rnode)) (d : list section) : option (list (bytes * rnode)) :=
  match d with
  | [] => Some m
  | s :: d' => match place_in m s with Some m' => fold_in m' d' | None => None end
  end.

Definition shift (q : path) (s : section) : section := mkSec (q ++ s_path s) (s_kind s) (s_lines s).

Lemma fold_place_app n d d' :
  fold_place n (d ++ d') = match fold_place n d with Some n' => fold_place n' d' | None => None end.
Proof.
  revert n. induction d as [|s r IH]; intro n; [reflexivity|]. cbn [app fold_place].
  destruct (place_sec n s); [apply IH|reflexivity].
Qed.

Lemma fold_in_app m d d' :
  fold_in m (d ++ d') = match fold_in m d with Some m' => fold_in m' d' | None => None end.
Proof.
  revert m. induction d as [|s r IH]; intro m; [reflexivity|]. cbn [app fold_in].
  destruct (place_in m s); [apply IH|reflexivity].
Qed.

(* a run of sections below the key k is the business of the node at k *)
Lemma fold_in_group k G : forall m, G <> [] ->
  fold_in m (map (shift [k]) G) =
  match fold_place (rlookup k m) G with Some (Some n') => Some (rset k n' m) | _ => None end.
Proof.
  induction G as [|s r IH]; intros m NE; [congruence|]. cbn [map fold_in fold_place].
  unfold place_in at 1. cbn [shift s_path s_kind s_lines app]. unfold place_sec at 1.
  destruct (place (rlookup k m) (s_path s) (s_kind s) (s_lines s)) as [n1|]; [|reflexivity].
  cbn [optmap]. destruct r as [|s' r'].
  - reflexivity.
  - rewrite IH by discriminate. rewrite rlookup_rset.
    destruct (fold_place (Some n1) (s' :: r')) as [[n'|]|]; try reflexivity.
    rewrite rset_rset. reflexivity.
Qed.

Definition nonroot (s : section) : Prop := s_path s <> [].

Lemma fold_place_tab e m d : Forall nonroot d ->
  fold_place (Some (RTab e m)) d = optmap (fun m' => Some (RTab e m')) (fold_in m d).
Proof.
  revert m. induction d as [|s r IH]; intros m H; [reflexivity|]. inversion H as [|? ? Hs Hr]; subst.
  cbn [fold_place fold_in]. unfold place_sec, place_in. unfold nonroot in Hs.
  destruct (s_path s) as [|k p']; [congruence|]. cbn [place].
  destruct (place (rlookup k m) p' (s_kind s) (s_lines s)); [|reflexivity]. cbn [optmap]. apply IH. exact Hr.
Qed.

Lemma fold_place_aot done m d : Forall nonroot d ->
  fold_place (Some (RAot done m)) d = optmap (fun m' => Some (RAot done m')) (fold_in m d).
Proof.
  revert m. induction d as [|s r IH]; intros m H; [reflexivity|]. inversion H as [|? ? Hs Hr]; subst.
  cbn [fold_place fold_in]. unfold place_sec, place_in. unfold nonroot in Hs.
  destruct (s_path s) as [|k p']; [congruence|]. cbn [place].
  destruct (place (rlookup k m) p' (s_kind s) (s_lines s)); [|reflexivity]. cbn [optmap]. apply IH. exact Hr.
Qed.

(* a table that has no section of its own comes into being with its first sub-section *)
Lemma fold_place_none d : Forall nonroot d -> d <> [] ->
  fold_place None d = optmap (fun m' => Some (RTab false m')) (fold_in [] d).
Proof.
  intros H NE. destruct d as [|s r]; [congruence|]. inversion H as [|? ? Hs Hr]; subst.
  cbn [fold_place fold_in]. unfold place_sec, place_in. unfold nonroot in Hs.
  destruct (s_path s) as [|k p']; [congruence|]. cbn [place].
  destruct (place (rlookup k []) p' (s_kind s) (s_lines s)); [|reflexivity]. cbn [optmap].
  apply fold_place_tab. exact Hr.
Qed.

(** * the sections of a table at a longer path are the same sections, shifted *)

Lemma sections_shift ml tn v : forall three q p kind,
  sections_at ml three tn v (q ++ p) kind = map (shift q) (sections_at ml three tn v p kind).
Proof.
  induction v as [t|l IH|m IH] using tv_ind2; intros three q p kind; try reflexivity.
  rewrite !sections_at_tab, map_app. f_equal.
  - unfold own_section. destruct (own_visible kind m (own_lines ml three tn m)); reflexivity.
  - assert (Et : forall kv, In kv m -> tab_secs ml tn (q ++ p) kv = map (shift q) (tab_secs ml tn p kv)).
    { intros [k x] Hin. rewrite Forall_forall in IH. destruct (IH _ Hin) as [Hx _].
      unfold tab_secs. cbn [fst snd] in *. destruct x as [t|l|m']; try reflexivity.
      rewrite <- app_assoc. apply Hx. }
    assert (Ee : forall kv l, In kv m -> snd kv = TArr l ->
                 elem_secs ml tn (q ++ p) (fst kv) l = map (shift q) (elem_secs ml tn p (fst kv) l)).
    { intros [k x] l Hin E. rewrite Forall_forall in IH. destruct (IH _ Hin) as [_ Hl].
      cbn [fst snd] in *. specialize (Hl l E). unfold elem_secs. rewrite map_flat_map.
      apply flat_map_ext_Forall. eapply Forall_impl; [|exact Hl]. intros e He.
      rewrite <- app_assoc. apply He. }
    unfold rest_secs. destruct three.
    + rewrite map_app, !map_flat_map. f_equal; apply flat_map_ext_Forall; apply Forall_forall; intros kv Hin.
      * unfold aot_secs. destruct (is_aot (snd kv)); [|reflexivity].
        destruct (snd kv) as [t|l|m'] eqn:E; try reflexivity. apply (Ee kv l Hin E).
      * apply Et. exact Hin.
    + rewrite map_flat_map. apply flat_map_ext_Forall. apply Forall_forall. intros kv Hin.
      unfold sub_secs. destruct (snd kv) as [t|l|m'] eqn:E; try reflexivity.
      * destruct (is_aot (TArr l)); [|reflexivity]. apply (Ee kv l Hin E).
      * specialize (Et kv Hin). unfold tab_secs in Et. rewrite E in Et. exact Et.
Qed.

(** * the four kinds of entries; distinct keys *)
From Coq Require Import Permutation.

Lemma class_cases x :
  (is_plain x = true /\ is_mixed x = false /\ is_aot x = false /\ is_table x = false) \/
  (is_plain x = false /\ is_mixed x = true /\ is_aot x = false /\ is_table x = false) \/
  (is_plain x = false /\ is_mixed x = false /\ is_aot x = true /\ is_table x = false) \/
  (is_plain x = false /\ is_mixed x = false /\ is_aot x = false /\ is_table x = true).
Proof.
  unfold is_plain, is_line, is_mixed. destruct x as [t|l|m].
  - left. auto.
  - cbn [is_table negb andb]. destruct (is_aot (TArr l)) eqn:A.
    + right. right. left. rewrite andb_false_r. auto.
    + destruct (arr_any_table (TArr l)); cbn; [right; left; auto|left; auto].
  - right. right. right. auto.
Qed.

Definition order4 (m : list (bytes * tv)) : list (bytes * tv) :=
  filter (fun kv => is_plain (snd kv)) m ++ filter (fun kv => is_mixed (snd kv)) m ++
  filter (fun kv => is_aot (snd kv)) m ++ filter (fun kv => is_table (snd kv)) m.

Lemma order4_perm m : Permutation (order4 m) m.
Proof.
  unfold order4. induction m as [|[k x] r IH]; [constructor|]. cbn [filter snd].
  destruct (class_cases x) as [(A & B & C & D)|[(A & B & C & D)|[(A & B & C & D)|(A & B & C & D)]]];
    rewrite A, B, C, D.
  - cbn [app]. constructor. exact IH.
  - symmetry. apply Permutation_cons_app. symmetry. exact IH.
  - symmetry. rewrite app_assoc. apply Permutation_cons_app. rewrite <- app_assoc. symmetry. exact IH.
  - symmetry. rewrite !app_assoc. apply Permutation_cons_app. rewrite <- !app_assoc. symmetry. exact IH.
Qed.

Lemma filter_negb_perm {A} (f : A -> bool) l : Permutation (filter f l ++ filter (fun x => negb (f x)) l) l.
Proof.
  induction l as [|x r IH]; [constructor|]. cbn [filter]. destruct (f x); cbn [negb app].
  - constructor. exact IH.
  - symmetry. apply Permutation_cons_app. symmetry. exact IH.
Qed.

(* the entries of a table as the document lists them: the key/value lines, then the rest *)
Definition lines_e (three : bool) (m : list (bytes * tv)) : list (bytes * tv) :=
  if three then filter (fun kv => is_plain (snd kv)) m ++ filter (fun kv => is_mixed (snd kv)) m
  else filter (fun kv => is_line (snd kv)) m.
Definition subs_e (three : bool) (m : list (bytes * tv)) : list (bytes * tv) :=
  if three then filter (fun kv => is_aot (snd kv)) m ++ filter (fun kv => is_table (snd kv)) m
  else filter (fun kv => negb (is_line (snd kv))) m.
Definition doc_order (three : bool) (m : list (bytes * tv)) : list (bytes * tv) := lines_e three m ++ subs_e three m.

Lemma doc_order_perm three m : Permutation (doc_order three m) m.
Proof.
  unfold doc_order, lines_e, subs_e. destruct three.
  - rewrite <- app_assoc. apply order4_perm.
  - apply filter_negb_perm.
Qed.

Lemma doc_order_nodup three m : NoDup (map fst m) -> NoDup (map fst (doc_order three m)).
Proof. intro H. eapply Permutation_NoDup; [|exact H]. apply Permutation_map. symmetry. apply doc_order_perm. Qed.

Lemma Forall_lines_e {P : bytes * tv -> Prop} three m : Forall P m -> Forall P (lines_e three m).
Proof. intro H. unfold lines_e. destruct three; [apply Forall_app; split|]; apply Forall_filter; exact H. Qed.

Lemma not_line_cases x : negb (is_line x) = true -> is_aot x = true \/ is_table x = true.
Proof.
  unfold is_line. destruct (is_table x); [right; reflexivity|]. destruct (is_aot x); [left; reflexivity|discriminate].
Qed.

Lemma subs_e_cases three m kv : In kv (subs_e three m) -> In kv m /\ (is_aot (snd kv) = true \/ is_table (snd kv) = true).
Proof.
  unfold subs_e. destruct three.
  - rewrite in_app_iff. intros [H|H]; apply filter_In in H as [Hin F]; auto.
  - intro H. apply filter_In in H as [Hin F]. split; [exact Hin|]. apply not_line_cases. exact F.
Qed.

Lemma NoDup_app_inv {A} (l l' : list A) :
  NoDup (l ++ l') -> NoDup l /\ NoDup l' /\ forall x, In x l -> ~ In x l'.
Proof.
  induction l as [|a l IH]; cbn [app]; intro H.
  - repeat split; [constructor|exact H|intros x []].
  - inversion H as [|? ? Ha H']; subst. destruct (IH H') as (N1 & N2 & D). repeat split.
    + constructor; [|exact N1]. intro. apply Ha. apply in_or_app. left. assumption.
    + exact N2.
    + intros x [<-|Hx]; [|apply D; exact Hx]. intro. apply Ha. apply in_or_app. right. assumption.
Qed.

Lemma wf_tab m : wf_tv (TTab m) = true -> NoDup (map fst m) /\ Forall (fun kv => wf_tv (snd kv) = true) m.
Proof.
  cbn [wf_tv]. rewrite andb_true_iff. intros [D W]. split; [apply keys_distinct_spec; exact D|].
  induction m as [|[k x] r IH]; [constructor|]. apply andb_true_iff in W as [W1 W2].
  constructor; [exact W1|]. apply IH; [|exact W2].
  cbn [keys_distinct] in D. apply andb_true_iff in D as [_ D]. exact D.
Qed.

Lemma wf_arr l : wf_tv (TArr l) = true -> Forall (fun e => wf_tv e = true) l.
Proof. cbn [wf_tv]. rewrite forallb_forall. intro H. apply Forall_forall. exact H. Qed.

Lemma order3_perm m : Permutation (order3 m) m.
Proof.
  unfold order3. induction m as [|[k x] r IH]; [constructor|]. cbn [filter snd].
  destruct (pass_cases x) as [(A & B & C)|[(A & B & C)|(A & B & C)]]; rewrite A, B, C.
  - cbn [app]. constructor. exact IH.
  - symmetry. apply Permutation_cons_app. symmetry. exact IH.
  - symmetry. rewrite app_assoc. apply Permutation_cons_app. rewrite <- app_assoc. symmetry. exact IH.
Qed.

Lemma ordn_perm tn m : Permutation (ordn tn m) m.
Proof. destruct tn; [apply order3_perm|reflexivity]. Qed.

Lemma iv_ok_inl m :
  iv_ok (VInl m) = keys_distinct m && forallb (fun kv => iv_ok (snd kv)) m.
Proof.
  cbn [iv_ok]. f_equal. induction m as [|[k x] r IH]; [reflexivity|]. cbn [forallb snd]. rewrite IH. reflexivity.
Qed.

Lemma iv_ok_inline ml tn v : wf_tv v = true -> iv_ok (inline_of ml tn v) = true.
Proof.
  induction v as [t|l IH|m IH] using tv_ind'; intro W.
  - reflexivity.
  - cbn [inline_of iv_ok]. rewrite forallb_map. apply forallb_forall. intros e He.
    rewrite Forall_forall in IH. apply IH; [exact He|]. apply wf_arr in W. rewrite Forall_forall in W. apply W. exact He.
  - rewrite inline_of_tab, iv_ok_inl. apply wf_tab in W as [ND W]. apply andb_true_iff. split.
    + apply keys_distinct_spec. rewrite map_map. cbn [fst].
      eapply Permutation_NoDup; [|exact ND]. apply Permutation_map. symmetry. apply ordn_perm.
    + rewrite forallb_map. apply forallb_forall. intros kv Hin. cbn [snd].
      assert (Hm : In kv m) by (eapply Permutation_in; [apply ordn_perm|exact Hin]).
      rewrite Forall_forall in IH, W. apply IH; [exact Hm|]. apply W. exact Hm.
Qed.

(** * the tree a reader builds from the canonical document *)

Definition line_node (ml tn : bool) (kv : bytes * tv) : bytes * rnode :=
  (fst kv, RVal (value_of (inline_of ml tn (snd kv)))).
Definition vis_std (ml tn : bool) (m : list (bytes * tv)) : bool := own_visible KStd m (own_lines ml tn tn m).

Definition aot_of (es : list (list (bytes * rnode))) : rnode := RAot (removelast es) (last es []).

Fixpoint expect (ml tn : bool) (v : tv) : list (bytes * rnode) :=
  match v with
  | TTab m =>
    map (line_node ml tn) (lines_e tn m) ++
    (if tn
     then
       (fix aots (m : list (bytes * tv)) : list (bytes * rnode) :=
          match m with
          | [] => []
          | (k, x) :: r =>
            (if is_aot x
             then match x with
                  | TArr l => [(k, aot_of (map (expect ml tn) l))]
                  | _ => []
                  end
             else []) ++ aots r
          end) m ++
       (fix tabs (m : list (bytes * tv)) : list (bytes * rnode) :=
          match m with
          | [] => []
          | (k, x) :: r =>
            (match x with TTab m' => [(k, RTab (vis_std ml tn m') (expect ml tn x))] | _ => [] end) ++ tabs r
          end) m
     else
       (fix subs (m : list (bytes * tv)) : list (bytes * rnode) :=
          match m with
          | [] => []
          | (k, x) :: r =>
            (match x with
             | TTab m' => [(k, RTab (vis_std ml tn m') (expect ml tn x))]
             | TArr l => if is_aot x then [(k, aot_of (map (expect ml tn) l))] else []
             | TLeaf _ => []
             end) ++ subs r
          end) m)
  | _ => []
  end.

(* the node an entry that is not a key/value line becomes *)
Definition sub_rnode (ml tn : bool) (x : tv) : rnode :=
  match x with
  | TTab m' => RTab (vis_std ml tn m') (expect ml tn x)
  | TArr l => aot_of (map (expect ml tn) l)
  | TLeaf t => RVal (TLeaf t)
  end.
Definition sub_entry (ml tn : bool) (kv : bytes * tv) : bytes * rnode := (fst kv, sub_rnode ml tn (snd kv)).

Lemma expect_tab ml tn m :
  expect ml tn (TTab m) = map (line_node ml tn) (lines_e tn m) ++ map (sub_entry ml tn) (subs_e tn m).
Proof.
  cbn [expect]. f_equal. unfold subs_e. destruct tn.
  - rewrite map_app. f_equal.
    + induction m as [|[k x] r IH]; [reflexivity|]. rewrite IH. cbn [filter snd].
      destruct (is_aot x) eqn:A; [|reflexivity]. destruct x as [t|l|m']; try discriminate. reflexivity.
    + induction m as [|[k x] r IH]; [reflexivity|]. rewrite IH. cbn [filter snd].
      destruct x as [t|l|m']; reflexivity.
  - induction m as [|[k x] r IH]; [reflexivity|]. rewrite IH. cbn [filter snd]. unfold is_line.
    destruct x as [t|l|m']; try reflexivity.
    cbn [is_table negb andb]. destruct (is_aot (TArr l)); reflexivity.
Qed.

Definition expect_root (ml three tn : bool) (m : list (bytes * tv)) : list (bytes * rnode) :=
  map (line_node ml tn) (lines_e three m) ++ map (sub_entry ml tn) (subs_e three m).

(** * groups of sub-sections *)

(* the sections of an entry that is a table or an array of tables, relative to its own key *)
Definition sub_group (ml tn : bool) (x : tv) : list section :=
  match x with
  | TTab _ => sections_at ml tn tn x [] KStd
  | TArr l => flat_map (fun e => sections_at ml tn tn e [] KArr) l
  | TLeaf _ => []
  end.

Definition shifted_group (ml tn : bool) (kv : bytes * tv) : list section :=
  map (shift [fst kv]) (sub_group ml tn (snd kv)).

Lemma elem_secs_group ml tn k l : elem_secs ml tn [] k l = map (shift [k]) (sub_group ml tn (TArr l)).
Proof.
  unfold elem_secs. cbn [sub_group app]. rewrite map_flat_map. apply flat_map_ext. intro e.
  exact (sections_shift ml tn e tn [k] [] KArr).
Qed.

Lemma tab_secs_group ml tn k m' : tab_secs ml tn [] (k, TTab m') = shifted_group ml tn (k, TTab m').
Proof. unfold tab_secs, shifted_group. cbn [fst snd sub_group app]. exact (sections_shift ml tn (TTab m') tn [k] [] KStd). Qed.

Lemma flat_map_filter {A B} (p : A -> bool) (f g : A -> list B) l :
  (forall x, f x = if p x then g x else []) -> flat_map f l = flat_map g (filter p l).
Proof.
  intro H. induction l as [|x r IH]; [reflexivity|]. cbn [flat_map filter]. rewrite H.
  destruct (p x); cbn [flat_map app]; rewrite IH; reflexivity.
Qed.

Lemma aot_secs_groups ml tn m :
  flat_map (aot_secs ml tn []) m = flat_map (shifted_group ml tn) (filter (fun kv => is_aot (snd kv)) m).
Proof.
  apply flat_map_filter. intros [k x]. unfold aot_secs, shifted_group. cbn [fst snd].
  destruct (is_aot x) eqn:A; [|reflexivity]. destruct x as [t|l|m']; try discriminate. apply elem_secs_group.
Qed.

Lemma tab_secs_groups ml tn m :
  flat_map (tab_secs ml tn []) m = flat_map (shifted_group ml tn) (filter (fun kv => is_table (snd kv)) m).
Proof.
  apply flat_map_filter. intros [k x]. destruct x as [t|l|m']; try reflexivity. apply tab_secs_group.
Qed.

Lemma sub_secs_groups ml tn m :
  flat_map (sub_secs ml tn []) m = flat_map (shifted_group ml tn) (filter (fun kv => negb (is_line (snd kv))) m).
Proof.
  apply flat_map_filter. intros [k x]. unfold sub_secs, shifted_group, is_line. cbn [fst snd].
  destruct x as [t|l|m'].
  - reflexivity.
  - cbn [is_table negb andb]. destruct (is_aot (TArr l)) eqn:A; [|reflexivity]. cbn [negb]. apply elem_secs_group.
  - cbn [is_table negb andb]. exact (tab_secs_group ml tn k m').
Qed.

Lemma rest_groups ml three tn m : rest_secs ml three tn m [] = flat_map (shifted_group ml tn) (subs_e three m).
Proof.
  unfold rest_secs, subs_e. destruct three.
  - rewrite aot_secs_groups, tab_secs_groups, flat_map_app. reflexivity.
  - apply sub_secs_groups.
Qed.

Lemma shifted_nonroot ml tn kv : Forall nonroot (shifted_group ml tn kv).
Proof. unfold shifted_group. apply Forall_forall. intros s H. apply in_map_iff in H as (s' & <- & _). discriminate. Qed.

Lemma groups_nonroot ml tn l : Forall nonroot (flat_map (shifted_group ml tn) l).
Proof.
  induction l as [|kv r IH]; [constructor|]. cbn [flat_map]. apply Forall_app. split; [apply shifted_nonroot|exact IH].
Qed.

(* what must hold of an entry for its group to be read as the node sub_rnode *)
Definition sub_ok (ml tn : bool) (x : tv) : Prop :=
  sub_group ml tn x <> [] /\ fold_place None (sub_group ml tn x) = Some (Some (sub_rnode ml tn x)).

Lemma subs_fold ml tn subs : forall mm,
  Forall (fun kv => sub_ok ml tn (snd kv)) subs -> NoDup (map fst subs) ->
  (forall k, In k (map fst subs) -> ~ In k (map fst mm)) ->
  fold_in mm (flat_map (shifted_group ml tn) subs) = Some (mm ++ map (sub_entry ml tn) subs).
Proof.
  induction subs as [|[k x] r IH]; intros mm Ok ND Dis.
  - cbn. rewrite app_nil_r. reflexivity.
  - inversion Ok as [|? ? [NE Hx] Ok']; subst. cbn [map fst] in ND, Dis. inversion ND as [|? ? Hk ND']; subst.
    cbn [flat_map]. rewrite fold_in_app. unfold shifted_group at 1. cbn [fst snd] in *.
    rewrite (fold_in_group k (sub_group ml tn x) mm NE).
    rewrite (rlookup_none k mm) by (apply Dis; left; reflexivity). rewrite Hx.
    rewrite (rset_new k _ mm) by (apply Dis; left; reflexivity).
    rewrite (IH (mm ++ [(k, sub_rnode ml tn x)]) Ok' ND').
    + cbn [map]. rewrite <- app_assoc. reflexivity.
    + intros k' Hin. rewrite map_app, in_app_iff. cbn [map fst In]. intros [H|[H|[]]].
      * apply (Dis k'); [right; exact Hin|exact H].
      * subst. contradiction.
Qed.

(** * every table writes at least one section *)

Lemma own_lines_nil ml three tn k x r :
  own_lines ml three tn ((k, x) :: r) = [] -> is_aot x = true \/ is_table x = true.
Proof.
  unfold own_lines, lines_where. destruct three; cbn [filter snd]; intro H.
  - apply app_eq_nil in H as [H1 H2].
    destruct (class_cases x) as [(A & B & C & D)|[(A & B & C & D)|[(A & B & C & D)|(A & B & C & D)]]];
      rewrite ?A, ?B in *; try discriminate; auto.
  - apply not_line_cases. destruct (is_line x); [discriminate|reflexivity].
Qed.

Lemma sections_nonempty ml tn v : is_table v = true -> forall three p kind, sections_at ml three tn v p kind <> [].
Proof.
  induction v as [t|l IH|m IH] using tv_ind2; intro T; try discriminate. intros three p kind.
  rewrite sections_at_tab. unfold own_section.
  destruct (own_visible kind m (own_lines ml three tn m)) eqn:V; [discriminate|].
  cbn [app]. destruct kind; try discriminate. cbn [own_visible] in V. apply negb_false_iff in V.
  apply andb_true_iff in V as [Vm Vl]. apply negb_true_iff in Vl.
  destruct m as [|[k x] r]; [discriminate|].
  assert (L : own_lines ml three tn ((k, x) :: r) = []) by (destruct (own_lines ml three tn ((k, x) :: r)); [reflexivity|discriminate]).
  apply own_lines_nil in L.
  inversion IH as [|? ? [Hx Hl] _]; subst. cbn [snd] in *.
  assert (NE : sub_secs ml tn p (k, x) <> []).
  { unfold sub_secs. cbn [fst snd]. destruct L as [A|Tx].
    - destruct x as [t|l|m']; try discriminate. rewrite A. destruct l as [|e q]; [discriminate|].
      unfold elem_secs. cbn [flat_map]. specialize (Hl (e :: q) eq_refl). inversion Hl as [|? ? He _]; subst.
      cbn [is_aot forallb] in A. apply andb_true_iff in A as [Te _].
      intro H. apply app_eq_nil in H as [H _]. exact (He Te _ _ _ H).
    - destruct x as [t|l|m']; try discriminate. exact (Hx eq_refl _ _ _). }
  rewrite <- sub_secs_ordn. intro H.
  assert (Hin : In (k, x) (ordn three ((k, x) :: r))).
  { eapply Permutation_in; [symmetry; apply ordn_perm|left; reflexivity]. }
  apply NE. clear -H Hin. induction (ordn three ((k, x) :: r)) as [|y q IH]; [destruct Hin|].
  cbn [flat_map] in H. apply app_eq_nil in H as [H1 H2]. destruct Hin as [->|Hin]; [exact H1|apply IH; assumption].
Qed.

(** * one table: its lines, then the groups of its sub-entries *)

Lemma table_fold ml tn (le se : list (bytes * tv)) :
  NoDup (map fst (le ++ se)) ->
  Forall (fun kv => wf_tv (snd kv) = true) le ->
  Forall (fun kv => sub_ok ml tn (snd kv)) se ->
  add_lines (map (fun kv => (fst kv, inline_of ml tn (snd kv))) le) [] = Some (map (line_node ml tn) le) /\
  fold_in (map (line_node ml tn) le) (flat_map (shifted_group ml tn) se)
  = Some (map (line_node ml tn) le ++ map (sub_entry ml tn) se).
Proof.
  intros ND W Ok. rewrite map_app in ND. apply NoDup_app_inv in ND as (N1 & N2 & Dis). split.
  - rewrite add_lines_ok.
    + cbn [app]. rewrite map_map. reflexivity.
    + rewrite map_map. exact N1.
    + intros k _ [].
    + apply Forall_forall. intros kv Hin. apply in_map_iff in Hin as (kv' & <- & Hin'). cbn [snd].
      apply iv_ok_inline. rewrite Forall_forall in W. apply W. exact Hin'.
  - apply subs_fold; [exact Ok|exact N2|].
    intros k Hk Hin. rewrite map_map in Hin. cbn [fst] in Hin. exact (Dis k Hin Hk).
Qed.

Definition aot_start (n0 : option rnode) (done' : list (list (bytes * rnode))) : Prop :=
  (n0 = None /\ done' = []) \/ (exists done cur, n0 = Some (RAot done cur) /\ done' = done ++ [cur]).

Definition read_std (ml tn : bool) (m : list (bytes * tv)) : Prop :=
  fold_place None (sections_at ml tn tn (TTab m) [] KStd) = Some (Some (RTab (vis_std ml tn m) (expect ml tn (TTab m)))).
Definition read_arr (ml tn : bool) (m : list (bytes * tv)) : Prop :=
  forall n0 done', aot_start n0 done' ->
  fold_place n0 (sections_at ml tn tn (TTab m) [] KArr) = Some (Some (RAot done' (expect ml tn (TTab m)))).

Lemma own_lines_e ml three tn m : own_lines ml three tn m = map (fun kv => (fst kv, inline_of ml tn (snd kv))) (lines_e three m).
Proof. unfold own_lines, lines_where, lines_e. destruct three; [rewrite map_app|]; reflexivity. Qed.

(* the lines and the groups of one table, whoever ordered it *)
Lemma level_fold ml three tn m :
  NoDup (map fst m) -> Forall (fun kv => wf_tv (snd kv) = true) m ->
  Forall (fun kv => sub_ok ml tn (snd kv)) (subs_e three m) ->
  add_lines (own_lines ml three tn m) [] = Some (map (line_node ml tn) (lines_e three m)) /\
  fold_in (map (line_node ml tn) (lines_e three m)) (rest_secs ml three tn m [])
  = Some (expect_root ml three tn m).
Proof.
  intros ND W Ok.
  assert (ND4 : NoDup (map fst (lines_e three m ++ subs_e three m))) by (apply doc_order_nodup; exact ND).
  destruct (table_fold ml tn (lines_e three m) (subs_e three m) ND4 (Forall_lines_e three m W) Ok) as [HL HS].
  rewrite own_lines_e, rest_groups. split; [exact HL|exact HS].
Qed.

Lemma read_level ml tn m :
  NoDup (map fst m) -> Forall (fun kv => wf_tv (snd kv) = true) m ->
  Forall (fun kv => sub_ok ml tn (snd kv)) (subs_e tn m) ->
  read_std ml tn m /\ read_arr ml tn m.
Proof.
  intros ND W Ok. destruct (level_fold ml tn tn m ND W Ok) as [HL HS].
  assert (EX : expect_root ml tn tn m = expect ml tn (TTab m)) by (rewrite expect_tab; reflexivity).
  rewrite EX in HS. split.
  - unfold read_std. pose proof (sections_nonempty ml tn (TTab m) eq_refl tn [] KStd) as NE.
    rewrite sections_at_tab in NE |- *. unfold own_section in NE |- *.
    fold (vis_std ml tn m) in NE |- *. destruct (vis_std ml tn m) eqn:V.
    + cbn [app fold_place]. unfold place_sec. cbn [s_path s_kind s_lines place]. rewrite HL. cbn [optmap].
      rewrite fold_place_tab by (rewrite rest_groups; apply groups_nonroot). rewrite HS. reflexivity.
    + cbn [app] in NE |- *. rewrite fold_place_none; [|rewrite rest_groups; apply groups_nonroot|exact NE].
      assert (L0 : lines_e tn m = []).
      { unfold vis_std in V. cbn [own_visible] in V. apply negb_false_iff in V. apply andb_true_iff in V as [_ V].
        apply negb_true_iff in V. rewrite own_lines_e in V. destruct (lines_e tn m); [reflexivity|discriminate]. }
      rewrite L0 in HS. cbn [map] in HS. rewrite HS. reflexivity.
  - intros n0 done' St. rewrite sections_at_tab. unfold own_section. cbn [own_visible app fold_place].
    unfold place_sec. cbn [s_path s_kind s_lines].
    assert (P0 : place n0 [] KArr (own_lines ml tn tn m) = Some (RAot done' (map (line_node ml tn) (lines_e tn m)))).
    { destruct St as [[-> ->]|(done & cur & -> & ->)]; cbn [place]; rewrite HL; reflexivity. }
    rewrite P0. rewrite fold_place_aot by (rewrite rest_groups; apply groups_nonroot). rewrite HS. reflexivity.
Qed.

Lemma sub_ok_tab ml tn m' : read_std ml tn m' -> sub_ok ml tn (TTab m').
Proof. intro H. split; [apply (sections_nonempty ml tn (TTab m') eq_refl)|exact H]. Qed.

Lemma removelast_cons {A} (a : A) l : l <> [] -> removelast (a :: l) = a :: removelast l.
Proof. destruct l; [congruence|reflexivity]. Qed.

Lemma last_cons {A} (a : A) l d : l <> [] -> last (a :: l) d = last l d.
Proof. destruct l; [congruence|reflexivity]. Qed.

Definition elem_ok (ml tn : bool) (e : tv) : Prop := exists m', e = TTab m' /\ read_arr ml tn m'.

Lemma elems_fold ml tn l : forall n0 done', aot_start n0 done' -> l <> [] -> Forall (elem_ok ml tn) l ->
  fold_place n0 (flat_map (fun e => sections_at ml tn tn e [] KArr) l)
  = Some (Some (RAot (done' ++ removelast (map (expect ml tn) l)) (last (map (expect ml tn) l) []))).
Proof.
  induction l as [|e r IH]; intros n0 done' St NE Ok; [congruence|].
  inversion Ok as [|? ? (m' & -> & He) Ok']; subst. cbn [flat_map]. rewrite fold_place_app.
  rewrite (He n0 done' St). destruct r as [|e' r'].
  - cbn. rewrite app_nil_r. reflexivity.
  - rewrite (IH (Some (RAot done' (expect ml tn (TTab m')))) (done' ++ [expect ml tn (TTab m')])); [| |discriminate|exact Ok'].
    + cbn [map]. rewrite (removelast_cons (expect ml tn (TTab m')) (expect ml tn e' :: map (expect ml tn) r')) by discriminate.
      rewrite (last_cons (expect ml tn (TTab m')) (expect ml tn e' :: map (expect ml tn) r')) by discriminate.
      rewrite <- app_assoc. reflexivity.
    + right. exists done', (expect ml tn (TTab m')). split; reflexivity.
Qed.

Lemma sub_ok_aot ml tn l : l <> [] -> Forall (elem_ok ml tn) l -> sub_ok ml tn (TArr l).
Proof.
  intros NE Ok. split.
  - destruct l as [|e r]; [congruence|]. inversion Ok as [|? ? (m' & -> & _) _]; subst.
    cbn [sub_group flat_map]. intro H. apply app_eq_nil in H as [H _].
    exact (sections_nonempty ml tn (TTab m') eq_refl _ _ _ H).
  - cbn [sub_group sub_rnode]. rewrite (elems_fold ml tn l None []); [reflexivity|left; split; reflexivity|exact NE|exact Ok].
Qed.

(** * every table with distinct keys, at any depth *)

Definition read_ok (ml tn : bool) (v : tv) : Prop :=
  forall m, v = TTab m -> wf_tv v = true -> read_std ml tn m /\ read_arr ml tn m.

Lemma sub_ok_entry ml tn x :
  (read_ok ml tn x /\ forall l, x = TArr l -> Forall (read_ok ml tn) l) ->
  wf_tv x = true -> is_aot x = true \/ is_table x = true -> sub_ok ml tn x.
Proof.
  intros [Hx Hl] W [A|T].
  - destruct x as [t|l|m']; try discriminate. specialize (Hl l eq_refl).
    assert (NE : l <> []) by (destruct l; [discriminate|discriminate]).
    apply sub_ok_aot; [exact NE|].
    assert (Tl : forallb is_table l = true) by (destruct l; [discriminate|exact A]).
    apply wf_arr in W. clear A NE Hx. induction l as [|e r IH]; [constructor|].
    cbn [forallb] in Tl. apply andb_true_iff in Tl as [T1 T2].
    inversion Hl as [|? ? He Hr]; subst. inversion W as [|? ? We Wr]; subst.
    constructor; [|apply IH; assumption].
    destruct e as [t|l'|m']; try discriminate. exists m'. split; [reflexivity|]. exact (proj2 (He m' eq_refl We)).
  - destruct x as [t|l|m']; try discriminate. apply sub_ok_tab. exact (proj1 (Hx m' eq_refl W)).
Qed.

Lemma read_ok_all ml tn v : read_ok ml tn v.
Proof.
  induction v as [t|l IH|m IH] using tv_ind2; intros m0 E W; try discriminate.
  injection E as <-. apply wf_tab in W as [ND W]. apply read_level; [exact ND|exact W|].
  apply Forall_forall. intros kv Hin. apply subs_e_cases in Hin as [Hin C].
  rewrite Forall_forall in IH, W. apply sub_ok_entry; [apply IH; exact Hin|apply W; exact Hin|exact C].
Qed.

Lemma sub_ok_all ml tn x : wf_tv x = true -> is_aot x = true \/ is_table x = true -> sub_ok ml tn x.
Proof.
  intros W C. apply sub_ok_entry; [|exact W|exact C]. split; [apply read_ok_all|].
  intros l _. apply Forall_forall. intros e _. apply read_ok_all.
Qed.

(** * the whole document *)

Lemma place_all_fold_in d : forall mm, Forall nonroot d -> place_all mm d = fold_in mm d.
Proof.
  induction d as [|s r IH]; intros mm H; [reflexivity|]. inversion H as [|? ? Hs Hr]; subst.
  cbn [place_all fold_in]. unfold place_root, place_in. unfold nonroot in Hs.
  destruct (s_path s) as [|k p']; [congruence|].
  destruct (optmap (fun n' => rset k n' mm) (place (rlookup k mm) p' (s_kind s) (s_lines s))); [apply IH; exact Hr|reflexivity].
Qed.

Theorem place_all_canonical ml three tn m :
  wf_tv (TTab m) = true -> place_all [] (sections_of ml three tn m) = Some (expect_root ml three tn m).
Proof.
  intro W0. apply wf_tab in W0 as [ND W].
  assert (Ok : Forall (fun kv => sub_ok ml tn (snd kv)) (subs_e three m)).
  { apply Forall_forall. intros kv Hin. apply subs_e_cases in Hin as [Hin C].
    rewrite Forall_forall in W. apply sub_ok_all; [apply W; exact Hin|exact C]. }
  destruct (level_fold ml three tn m ND W Ok) as [HL HS].
  unfold sections_of. rewrite sections_at_tab. unfold own_section. cbn [own_visible app place_all].
  unfold place_root. cbn [s_path s_kind s_lines]. rewrite HL.
  rewrite place_all_fold_in by (rewrite rest_groups; apply groups_nonroot). exact HS.
Qed.
