(* Proofs/TilingNormDoc.v — C03, scanner side, part 4: values, items, lines; the theorem
     norm_lines : drop_bom s = w ++ t -> ws_tok w -> lines_text t l o -> normalize s = w ++ o
   (the grammar-directed normal form of Proofs/TilingDefs.v is what the parser-independent
   scanner of Spec/Norm.v computes), and the by-products: the relations of TilingDefs.v refine
   the grammar (`vtext_val`, `item_text_item`), `drop_bom` is `strip_bom`. *)
From TV Require Import Base.Prelude Spec.Lex Spec.Defs Spec.Syntax Spec.Norm.
From TV Require Import Proofs.LexEquivBase Proofs.GrammarDocLine.
From TV Require Import Proofs.TilingDefs Proofs.TilingNormScan Proofs.TilingNormStr Proofs.TilingNormTok.
Require Import Lia ZifyBool ZifyN ZifyNat.

(* ================================================================================================= *)
(* the relations refine the grammar                                                                  *)
(* ================================================================================================= *)
Lemma vtext_mut_val :
  (forall t a o, vtext t a o -> val_tok t a)
  /\ (forall vs l o, avtext vs l o -> array_values_tok vs l)
  /\ (forall kvs l o, iktext kvs l o -> inline_keyvals_tok kvs l).
Proof.
  apply vtext_mutind.
  - intros t a H. apply scalar_val, H.
  - intros w Hw. apply v_array_empty, Hw.
  - intros vs l o w _ IH Hw. apply v_array; assumption.
  - intros w Hw. apply v_inline_empty, Hw.
  - intros w1 kvs l o w2 H1 _ IH H2. apply v_inline; assumption.
  - intros w1 t a o w2 c H1 _ IH H2 Hc. apply av_last; assumption.
  - intros w1 t a o w2 u l ou H1 _ IH H2 _ IHu. apply av_more; assumption.
  - intros k p w1 w2 t a o Hk H1 H2 _ IH. apply ik_last; assumption.
  - intros k p w1 w2 t a o w3 w4 u l ou Hk H1 H2 _ IH H3 H4 _ IHu. apply ik_more; assumption.
Qed.

Lemma vtext_val t a o : vtext t a o -> val_tok t a.
Proof. apply (proj1 vtext_mut_val). Qed.
Lemma avtext_values vs l o : avtext vs l o -> array_values_tok vs l.
Proof. apply (proj1 (proj2 vtext_mut_val)). Qed.
Lemma iktext_keyvals kvs l o : iktext kvs l o -> inline_keyvals_tok kvs l.
Proof. apply (proj2 (proj2 vtext_mut_val)). Qed.

Lemma item_text_item e l o : item_text e l o -> GrammarDocLine.item_tok e l.
Proof.
  intros [|c Hc|k p w1 w2 t a o0 w c Hk H1 H2 Hv Hw Hc|t p w c Ht Hw Hc|t p w c Ht Hw Hc].
  - apply it_blank.
  - apply it_comment, Hc.
  - apply it_keyval; [|exact Hw|exact Hc]. exists k, w1, w2, t. split; [reflexivity|].
    split; [exact Hk|]. split; [exact H1|]. split; [exact H2|apply (vtext_val t a o0 Hv)].
  - apply it_std; assumption.
  - apply it_arr; assumption.
Qed.

Lemma drop_bom_strip_bom s : drop_bom s = Syntax.strip_bom s.
Proof.
  unfold drop_bom, bom, strip_bom. destruct s as [|b0 [|b1 [|b2 r]]]; cbn [strip_prefix].
  - reflexivity.
  - destruct (byte_eqb xef b0); reflexivity.
  - destruct (byte_eqb xef b0); [|reflexivity]. destruct (byte_eqb xbb b1); reflexivity.
  - rewrite (byte_eqb_sym b0), (byte_eqb_sym b1), (byte_eqb_sym b2).
    destruct (byte_eqb xef b0); [|reflexivity]. destruct (byte_eqb xbb b1); [|reflexivity].
    destruct (byte_eqb xbf b2); reflexivity.
Qed.

(* ================================================================================================= *)
(* values                                                                                            *)
(* ================================================================================================= *)
(* `til` (the scanner's output) and `D` of Proofs/TilingCmt.v (the comments kept) are built over the
   derivation of a value in the same way.  T k F t o: some relation between a text t, followed by
   an F-text, and its normal form o, with the composition rules of `til`. *)
Section Tiled.
  Variable T : kind -> (bytes -> Prop) -> bytes -> bytes -> Prop.
  Hypothesis T_app : forall k1 k2 (F1 F2 : bytes -> Prop) t1 t2 o1 o2,
    T k1 F1 t1 o1 -> T k2 F2 t2 o2 -> (forall r, F2 r -> F1 (t2 ++ r)) -> (forall r, F2 r -> F1 (o2 ++ r)) ->
    T (mul k1 k2) F2 (t1 ++ t2) (o1 ++ o2).
  Hypothesis T_any : forall k (F : bytes -> Prop) t o, T k anyf t o -> T k F t o.
  Hypothesis T_sub : forall k F t o, T k F t o -> T CT F t o.
  Hypothesis T_nil : forall F, T CB F [] [].
  Hypothesis T_qt : forall k F t, qt k F t -> T k F t t.
  Hypothesis T_wscn : forall w, wscn_tok w -> T CT anyf w (ncr w).

  Lemma T_app_any k1 k2 (F2 : bytes -> Prop) t1 t2 o1 o2 : T k1 anyf t1 o1 -> T k2 F2 t2 o2 -> T (mul k1 k2) F2 (t1 ++ t2) (o1 ++ o2).
  Proof. intros H1 H2. apply (T_app k1 k2 anyf F2); [assumption|assumption|intros; exact I|intros; exact I]. Qed.

  Lemma T_byte b : plainb b = true -> blank b = false -> T CS anyf [b] [b].
  Proof. intros Hp Hb. apply T_qt, qt_byte; assumption. Qed.

  Lemma T_ws w : ws_tok w -> T CB anyf w w.
  Proof. intro H. apply T_qt, qt_ws, H. Qed.

  Lemma keyval_tiled k p w1 w2 t o :
    key_tok k p -> ws_tok w1 -> ws_tok w2 -> T CS qstop t o ->
    T CS qstop (k ++ w1 ++ [x3d] ++ w2 ++ t) (k ++ w1 ++ [x3d] ++ w2 ++ o).
  Proof.
    intros Hk H1 H2 Ht.
    apply (T_app CS CS qstop qstop); [apply T_qt, (qt_key k p Hk)| |intros r Hr; qs|intros r Hr; qs].
    apply (T_app_any CB CS); [apply T_ws, H1|].
    apply (T_app_any CS CS); [apply T_byte; reflexivity|].
    apply (T_app_any CB CS); [apply T_ws, H2|exact Ht].
  Qed.

  Theorem values_tiled :
    (forall t a o, vtext t a o -> T CS qstop t o)
    /\ (forall vs l o, avtext vs l o -> T CT qstop vs o)
    /\ (forall kvs l o, iktext kvs l o -> T CS qstop kvs o).
  Proof.
    apply vtext_mutind.
    - (* scalar *) intros t a H. apply T_qt, (qt_scalar t a H).
    - (* [] *) intros w Hw.
      apply (T_app_any CS CS); [apply T_byte; reflexivity|].
      apply (T_app_any CT CS); [apply T_wscn, Hw|apply T_any, T_byte; reflexivity].
    - (* [ values ] *) intros vs l o w _ IH Hw. pose proof (wscn_ncr w Hw) as Hw'.
      apply (T_app_any CS CS); [apply T_byte; reflexivity|].
      apply (T_app CT CS qstop qstop); [exact IH| |intros r Hr; qs|intros r Hr; qs].
      apply (T_app_any CT CS); [apply T_wscn, Hw|apply T_any, T_byte; reflexivity].
    - (* {} *) intros w Hw.
      apply (T_app_any CS CS); [apply T_byte; reflexivity|].
      apply (T_app_any CB CS); [apply T_ws, Hw|apply T_any, T_byte; reflexivity].
    - (* { keyvals } *) intros w1 kvs l o w2 H1 _ IH H2.
      apply (T_app_any CS CS); [apply T_byte; reflexivity|].
      apply (T_app_any CB CS); [apply T_ws, H1|].
      apply (T_app CS CS qstop qstop); [exact IH| |intros r Hr; qs|intros r Hr; qs].
      apply (T_app_any CB CS); [apply T_ws, H2|apply T_any, T_byte; reflexivity].
    - (* last array value *) intros w1 t a o w2 c H1 _ IH H2 Hc. pose proof (wscn_ncr w2 H2) as H2'.
      apply (T_app_any CT CT); [apply T_wscn, H1|].
      apply (T_app CS CT qstop qstop); [exact IH| |intros r Hr; destruct Hc as [-> | ->]; qs|intros r Hr; destruct Hc as [-> | ->]; qs].
      destruct Hc as [-> | ->].
      + apply (T_app_any CT CB); [apply T_wscn, H2|apply T_nil].
      + apply (T_sub CS). apply (T_app_any CT CS); [apply T_wscn, H2|apply T_any, T_byte; reflexivity].
    - (* array value, more *) intros w1 t a o w2 u l ou H1 _ IH H2 _ IHu. pose proof (wscn_ncr w2 H2) as H2'.
      apply (T_app_any CT CT); [apply T_wscn, H1|].
      apply (T_app CS CT qstop qstop); [exact IH| |intros r Hr; qs|intros r Hr; qs].
      apply (T_app_any CT CT); [apply T_wscn, H2|].
      apply (T_app_any CS CT); [apply T_byte; reflexivity|exact IHu].
    - (* last keyval *) intros k p w1 w2 t a o Hk H1 H2 _ IH. apply (keyval_tiled k p); assumption.
    - (* keyval, more *) intros k p w1 w2 t a o w3 w4 u l ou Hk H1 H2 _ IH H3 H4 _ IHu.
      assert (E : forall x y, k ++ w1 ++ [x3d] ++ w2 ++ x ++ w3 ++ [x2c] ++ w4 ++ y
                            = (k ++ w1 ++ [x3d] ++ w2 ++ x) ++ w3 ++ [x2c] ++ w4 ++ y)
        by (intros x y; rewrite <- !app_assoc; reflexivity).
      rewrite !E.
      apply (T_app CS CS qstop qstop); [apply (keyval_tiled k p); assumption| |intros r Hr; qs|intros r Hr; qs].
      apply (T_app_any CB CS); [apply T_ws, H3|].
      apply (T_app_any CS CS); [apply T_byte; reflexivity|].
      apply (T_app_any CB CS); [apply T_ws, H4|exact IHu].
  Qed.
End Tiled.

Lemma til_app2 k1 k2 (F1 F2 : bytes -> Prop) t1 t2 o1 o2 :
  til k1 F1 t1 o1 -> til k2 F2 t2 o2 -> (forall r, F2 r -> F1 (t2 ++ r)) -> (forall r, F2 r -> F1 (o2 ++ r)) ->
  til (mul k1 k2) F2 (t1 ++ t2) (o1 ++ o2).
Proof. intros H1 H2 H _. apply (til_app k1 k2 F1 F2); assumption. Qed.

Lemma til_keyval k p w1 w2 t o :
  key_tok k p -> ws_tok w1 -> ws_tok w2 -> til CS qstop t o ->
  til CS qstop (k ++ w1 ++ [x3d] ++ w2 ++ t) (k ++ w1 ++ [x3d] ++ w2 ++ o).
Proof. exact (keyval_tiled til til_app2 qt_til k p w1 w2 t o). Qed.

Theorem til_values :
  (forall t a o, vtext t a o -> til CS qstop t o)
  /\ (forall vs l o, avtext vs l o -> til CT qstop vs o)
  /\ (forall kvs l o, iktext kvs l o -> til CS qstop kvs o).
Proof. exact (values_tiled til til_app2 til_any til_sub til_nil qt_til til_wscn). Qed.

Lemma til_vtext t a o : vtext t a o -> til CS qstop t o.
Proof. apply (proj1 til_values). Qed.

(* ================================================================================================= *)
(* items                                                                                             *)
(* ================================================================================================= *)
(* one line without leading whitespace and line end: a piece that a line end follows *)
Definition itemz (e : bytes) (l : list astmt) (o : bytes) : Prop :=
  exists zs, txt zs = e /\ piece lendf zs /\ outz zs = o
             /\ (l = [] -> flag FFresh zs <> FStmt)
             /\ (l <> [] -> flag FFresh zs = FStmt /\ ends_lf o = false).

Lemma item_end t o w c l : til CS qstop t o -> ws_tok w -> opt_comment c -> l <> [] ->
  itemz (t ++ w ++ c) l (o ++ w ++ c).
Proof.
  intros (zt & Tt & Pt & Ot & Ft & Nt & Et) Hw Hc Hl.
  assert (Ew : ends_lf w = false) by (apply plain_ends_lf, ws_plain, Hw).
  assert (Ow : outz (tag LNormal w) = w)
    by (rewrite outz_tag_ncr by reflexivity; apply ncr_nocr, plain_nocr, ws_plain, Hw).
  destruct Hc as [-> | Hc].
  - exists (zt ++ tag LNormal w). rewrite !app_nil_r.
    split; [rewrite txt_app, txt_tag, Tt; reflexivity|]. split; [|split; [|split; [congruence|]]].
    + apply (piece_app qstop lendf); [exact Pt|apply (piece_weaken anyf); [intros; exact I|apply piece_nq, plain_nq, ws_plain, Hw]|].
      intros r Hr. rewrite txt_tag. qs.
    + rewrite outz_app, Ot, Ow. reflexivity.
    + intros _. split; [rewrite flag_app, Ft by discriminate; apply flag_ws, Hw|apply ends_lf_app_false; assumption].
  - exists (zt ++ tag LNormal w ++ tag LComment c).
    split; [rewrite !txt_app, !txt_tag, Tt; reflexivity|]. split; [|split; [|split; [congruence|]]].
    + apply (piece_app qstop lendf); [exact Pt| |].
      * apply (piece_app anyf lendf); [apply piece_nq, plain_nq, ws_plain, Hw|apply piece_comment, Hc|intros; exact I].
      * intros r Hr. rewrite txt_app, !txt_tag. assert (Hc' : opt_comment c) by (right; exact Hc). qs.
    + rewrite !outz_app, Ot, Ow, comment_outz by exact Hc. reflexivity.
    + intros _. split.
      * rewrite !flag_app, Ft by discriminate. rewrite flag_ws by exact Hw. apply flag_stmt_no_nl, comment_no_nl, Hc.
      * apply ends_lf_app_false; [exact Et|]. apply ends_lf_app_false; [exact Ew|apply nocrlf_ends_lf, comment_nocrlf, Hc].
Qed.

Lemma qt_std_table t p : std_table_tok t p -> qt CS qstop t.
Proof.
  intros (w1 & k & w2 & -> & H1 & Hk & H2).
  apply (qt_app_any CS CS); [apply qt_byte; reflexivity|].
  apply (qt_app_any CB CS); [apply qt_ws, H1|].
  apply (qt_app CS CS qstop qstop); [apply (qt_key k p Hk)| |intros r Hr; qs].
  apply (qt_app_any CB CS); [apply qt_ws, H2|apply qt_any, qt_byte; reflexivity].
Qed.

Lemma til_std_table t p : std_table_tok t p -> til CS qstop t t.
Proof. intro H. apply qt_til, (qt_std_table t p H). Qed.

Lemma qt_array_table t p : array_table_tok t p -> qt CS qstop t.
Proof.
  intros (w1 & k & w2 & -> & H1 & Hk & H2).
  apply (qt_app_any CS CS); [apply qt_plain; reflexivity|].
  apply (qt_app_any CB CS); [apply qt_ws, H1|].
  apply (qt_app CS CS qstop qstop); [apply (qt_key k p Hk)| |intros r Hr; qs].
  apply (qt_app_any CB CS); [apply qt_ws, H2|apply qt_any, qt_plain; reflexivity].
Qed.

Lemma til_array_table t p : array_table_tok t p -> til CS qstop t t.
Proof. intro H. apply qt_til, (qt_array_table t p H). Qed.

Theorem item_itemz e l o : item_text e l o -> itemz e l o.
Proof.
  intros [|c Hc|k p w1 w2 t a o0 w c Hk H1 H2 Hv Hw Hc|t p w c Ht Hw Hc|t p w c Ht Hw Hc].
  - exists []. split; [reflexivity|]. split; [apply piece_nil|]. split; [reflexivity|]. split; [discriminate|congruence].
  - exists (tag LComment c). split; [apply txt_tag|]. split; [apply piece_comment, Hc|]. split; [apply comment_outz, Hc|].
    split; [intros _; rewrite comment_flag_fresh by exact Hc; discriminate|congruence].
  - apply item_end; [|exact Hw|exact Hc|discriminate]. apply (til_keyval k p); [assumption..|apply (til_vtext t a o0 Hv)].
  - apply item_end; [apply (til_std_table t p Ht)|exact Hw|exact Hc|discriminate].
  - apply item_end; [apply (til_array_table t p Ht)|exact Hw|exact Hc|discriminate].
Qed.

(* ================================================================================================= *)
(* lines                                                                                             *)
(* ================================================================================================= *)
Lemma tail_lf_prefix zp zs : flag FFresh zp = FFresh -> tail_lf (zp ++ zs) = tail_lf zs.
Proof.
  intro H. unfold tail_lf. rewrite flag_app, H. destruct (is_stmt (flag FFresh zs)) eqn:E; [|reflexivity].
  assert (N : outz zs <> []).
  { apply (stmt_outz_nonempty zs FFresh); [discriminate|]. destruct (flag FFresh zs); try discriminate. reflexivity. }
  rewrite outz_app, ends_lf_app by exact N. reflexivity.
Qed.

Lemma ws_z w : ws_tok w ->
  txt (tag LNormal w) = w /\ (forall r, labels SNormal (w ++ r) = lab (tag LNormal w) ++ labels SNormal r)
  /\ outz (tag LNormal w) = w /\ forall f, flag f (tag LNormal w) = f.
Proof.
  intro Hw. split; [apply txt_tag|]. split; [|split].
  - intro r. rewrite lab_tag. apply labels_nq, plain_nq, ws_plain, Hw.
  - rewrite outz_tag_ncr by reflexivity. apply ncr_nocr, plain_nocr, ws_plain, Hw.
  - intro f. apply flag_ws, Hw.
Qed.

Definition linesz (t o : bytes) : Prop :=
  exists zs, txt zs = t /\ labels SNormal t = lab zs /\ o = outz zs ++ tail_lf zs.

Theorem lines_linesz t l o : lines_text t l o -> linesz t o.
Proof.
  induction 1 as [|w0 e l o Hw0 He|w0 e l o nl w t l' o' Hw0 He Hn Hw _ IH].
  - exists []. split; [reflexivity|]. split; reflexivity.
  - destruct (ws_z w0 Hw0) as (T0 & L0 & O0 & F0). destruct (item_itemz e l o He) as (ze & Te & Pe & Oe & Fn & Fs).
    exists (tag LNormal w0 ++ ze). split; [rewrite txt_app, T0, Te; reflexivity|]. split.
    + rewrite L0, lab_app. f_equal. specialize (Pe [] (or_introl eq_refl)). rewrite Te, app_nil_r in Pe.
      rewrite Pe. cbn [labels]. apply app_nil_r.
    + rewrite tail_lf_prefix by apply F0. rewrite outz_app, O0, Oe, <- app_assoc. f_equal. f_equal.
      unfold tail_lf, stmt_lf. destruct l as [|s l].
      * specialize (Fn eq_refl). destruct (flag FFresh ze); try reflexivity. congruence.
      * destruct Fs as [Fs Es]; [discriminate|]. rewrite Fs, Oe, Es. reflexivity.
  - destruct (ws_z w0 Hw0) as (T0 & L0 & O0 & F0). destruct (ws_z w Hw) as (T1 & L1 & O1 & F1).
    destruct (item_itemz e l o He) as (ze & Te & Pe & Oe & _). destruct IH as (zt & Tt & Lt & Ot).
    exists ((tag LNormal w0 ++ ze ++ tag LNormal nl ++ tag LNormal w) ++ zt).
    split; [rewrite !txt_app, T0, Te, txt_tag, T1, Tt, <- !app_assoc; reflexivity|]. split.
    + rewrite L0, !lab_app, <- !app_assoc. f_equal.
      specialize (Pe (nl ++ w ++ t) (lendf_newline nl (w ++ t) Hn)). rewrite Te in Pe. rewrite Pe. f_equal.
      rewrite (labels_nq nl) by (apply newline_nq, Hn). rewrite lab_tag. f_equal.
      rewrite L1, Lt. reflexivity.
    + rewrite tail_lf_prefix.
      * rewrite !outz_app, O0, Oe, newline_outz, O1, Ot, <- !app_assoc by exact Hn. reflexivity.
      * rewrite !flag_app, F1. apply newline_flag, Hn.
Qed.

(* ================================================================================================= *)
(* the theorem                                                                                       *)
(* ================================================================================================= *)
Theorem norm_lines s w t l o :
  drop_bom s = w ++ t -> ws_tok w -> lines_text t l o -> normalize s = w ++ o.
Proof.
  intros Hs Hw Hl. destruct (lines_linesz t l o Hl) as (zs & Tz & Lz & ->).
  destruct (ws_z w Hw) as (T0 & L0 & O0 & F0).
  rewrite normalize_eq, Hs.
  assert (E : combine (w ++ t) (labels SNormal (w ++ t)) = tag LNormal w ++ zs).
  { rewrite L0, Lz, <- lab_app. rewrite <- T0 at 1. rewrite <- Tz at 1. rewrite <- txt_app. apply combine_txt_lab. }
  rewrite E, tail_lf_prefix by apply F0. rewrite outz_app, O0, <- app_assoc. reflexivity.
Qed.

Print Assumptions norm_lines.

(* the hypotheses are satisfiable: a BOM, a CR LF line end, a last comment line without newline *)
Example norm_lines_example :
  normalize ([xef; xbb; xbf] ++ [x61; x20; x3d; x20; x31; x0d; x0a; x20; x23; x20; x63])
  = [x61; x20; x3d; x20; x31; x0a; x20; x23; x20; x63].
Proof.
  apply (norm_lines _ [] [x61; x20; x3d; x20; x31; x0d; x0a; x20; x23; x20; x63] [SKeyVal [[x61]] (AInt 1)]
           [x61; x20; x3d; x20; x31; x0a; x20; x23; x20; x63]).
  - reflexivity.
  - reflexivity.
  - apply (ltx_cons [] [x61; x20; x3d; x20; x31] [SKeyVal [[x61]] (AInt 1)] [x61; x20; x3d; x20; x31] [x0d; x0a] [x20] [x23; x20; x63] [] [x23; x20; x63]).
    + reflexivity.
    + apply (itx_keyval [x61] [[x61]] [x20] [x20] [x31] (AInt 1) [x31] [] []); try reflexivity.
      * apply key_one. right. right. split; [split; [discriminate|reflexivity]|reflexivity].
      * apply vt_scalar, st_integer. left. exists [], false, [x31], [x31].
        split; [reflexivity|]. split; [left; auto|]. split; [|reflexivity].
        left. exists x31. auto.
      * left. reflexivity.
    + right. reflexivity.
    + reflexivity.
    + apply (ltx_last [] [x23; x20; x63] [] [x23; x20; x63]); [reflexivity|].
      apply itx_comment. exists [x20; x63]. split; reflexivity.
Qed.
