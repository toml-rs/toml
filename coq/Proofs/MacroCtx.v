(* Proofs/MacroCtx.v — C19: the three places a value is written in — after `key =` at top level, after
   `key =` in an inline table, as an array element — described by what Proofs/MacroStmt.v asks of such a place:
     the key/value rules fire as the first matching tail says          (Proofs/MacroRules.v)
     again / dtq   the sign rules and the date-time shapes re-submit the value to the same state / to the
                   @...datetime helper, the rest of the input unchanged (the transcription lemmas below)
     generic       one plain value token: evaluate it with @value, store it, go on
     dt            the helper parses the stringified tokens, stores the value, goes on *)
From TV Require Import Base.Prelude Model.Macro Spec.MacroSpec.
From TV Require Import Proofs.MacroMatch Proofs.MacroRules Proofs.MacroTails Proofs.MacroEval Proofs.MacroAux.

(* ---- transcription of the templates, in the environment of a key/value rule:
        the bindings E of the front part of the head, those of the tail, `$rest` ---- *)
Lemma tr_var : forall x e t, lookup x e = Some (BTT t) -> transcribe (QVar x) e = [t].
Proof. intros x e t H. cbn [transcribe]. rewrite H. reflexivity. Qed.

Lemma lookup_rest : forall E e b, lookup Vrest E = None -> lookup Vrest e = None ->
  lookup Vrest (E ++ e ++ [(Vrest, b)]) = Some b.
Proof. intros E e b H1 H2. rewrite !lookup_app, H1, H2. reflexivity. Qed.

Section Transcribe.
Variables (r : bytes) (pt : list tt) (segs : list (list tt)) (e : env) (R : list tt).
Hypothesis He : lookup Vrest e = None.
Let rest : env := e ++ [(Vrest, tts_bnd R)].

(* the four pieces the templates are made of *)
Ltac pieces E :=
  rewrite ?(tr_var Vroot (E ++ rest) (TIdent r) eq_refl), ?(transcribe_star Vrest (E ++ rest) R (lookup_rest E e _ eq_refl He)),
          ?(transcribe_key Vk (E ++ rest) segs eq_refl);
  cbn [transcribe flat_map Q]; rewrite ?(transcribe_star Vpath (E ++ rest) pt eq_refl), ?app_nil_r.

Lemma tr_top_next : transcribe_seq top_next (E_top r pt segs ++ rest) = top_in r pt R.
Proof. unfold transcribe_seq, top_next, qstate, pathQ. cbn [app flat_map]. pieces (E_top r pt segs). reflexivity. Qed.

Lemma tr_top_again : forall vq, transcribe_seq (top_again vq) (E_top r pt segs ++ rest)
  = top_in r pt (dot_join segs ++ TPunct c_eq :: transcribe_seq vq (E_top r pt segs ++ rest) ++ R).
Proof.
  intro vq. unfold transcribe_seq, top_again, qstate, pathQ. cbn [app flat_map]. rewrite flat_map_app. cbn [flat_map].
  pieces (E_top r pt segs). reflexivity.
Qed.

Lemma tr_top_dt : forall q, transcribe_seq (top_dt q) (E_top r pt segs ++ rest)
  = st_in id_topleveldatetime r (TGroup DBracket pt :: dot_join segs ++ TPunct c_eq
                                 :: TGroup DParen (transcribe_seq q (E_top r pt segs ++ rest)) :: R).
Proof. intro q. unfold transcribe_seq, top_dt, qstate, pathQ. cbn [app flat_map]. pieces (E_top r pt segs). reflexivity. Qed.

Lemma tr_tab_next : transcribe_seq tab_next (E_tab r segs ++ rest) = st_in id_table r R.
Proof. unfold transcribe_seq, tab_next, qstate. cbn [app flat_map]. pieces (E_tab r segs). reflexivity. Qed.

Lemma tr_tab_again : forall vq, transcribe_seq (tab_again vq) (E_tab r segs ++ rest)
  = st_in id_table r (dot_join segs ++ TPunct c_eq :: transcribe_seq vq (E_tab r segs ++ rest) ++ TPunct c_comma :: R).
Proof.
  intro vq. unfold transcribe_seq, tab_again, qstate. cbn [app flat_map]. rewrite flat_map_app. cbn [flat_map].
  pieces (E_tab r segs). reflexivity.
Qed.

Lemma tr_tab_dt : forall q, transcribe_seq (tab_dt q) (E_tab r segs ++ rest)
  = st_in id_tabledatetime r (dot_join segs ++ TPunct c_eq :: TGroup DParen (transcribe_seq q (E_tab r segs ++ rest)) :: R).
Proof. intro q. unfold transcribe_seq, tab_dt, qstate. cbn [app flat_map]. pieces (E_tab r segs). reflexivity. Qed.

Lemma tr_arr_next : transcribe_seq arr_next (E_arr r ++ rest) = st_in id_array r R.
Proof. unfold transcribe_seq, arr_next, qstate. cbn [app flat_map]. pieces (E_arr r). reflexivity. Qed.

Lemma tr_arr_again : forall vq, transcribe_seq (arr_again vq) (E_arr r ++ rest)
  = st_in id_array r (transcribe_seq vq (E_arr r ++ rest) ++ TPunct c_comma :: R).
Proof.
  intro vq. unfold transcribe_seq, arr_again, qstate. cbn [app flat_map]. rewrite flat_map_app. cbn [flat_map].
  pieces (E_arr r). reflexivity.
Qed.

Lemma tr_arr_dt : forall q, transcribe_seq (arr_dt q) (E_arr r ++ rest)
  = st_in id_arraydatetime r (TGroup DParen (transcribe_seq q (E_arr r ++ rest)) :: R).
Proof. intro q. unfold transcribe_seq, arr_dt, qstate. cbn [app flat_map]. pieces (E_arr r). reflexivity. Qed.
End Transcribe.

(* ---- keys_of_env on the environments with a key ---- *)
Lemma keys_top : forall e cp p, path_ok p = true ->
  lookup Vpath e = Some (tts_bnd (List.map path_tok cp)) -> lookup Vk e = Some (key_bnd (List.map seg_parts p)) ->
  keys_of_env true Vk e = EOk (cp ++ path_strings p).
Proof.
  intros e cp p Hp H2 H3. unfold keys_of_env.
  rewrite (env_tts_lookup Vpath e _ H2), path_strs_toks. cbn [ebind].
  rewrite (env_segs_lookup Vk e _ H3), (key_strs_path p (proj2 (path_segs_ok p Hp))). reflexivity.
Qed.

Lemma keys_tab : forall e p, path_ok p = true ->
  lookup Vk e = Some (key_bnd (List.map seg_parts p)) ->
  keys_of_env false Vk e = EOk (path_strings p).
Proof.
  intros e p Hp H3. unfold keys_of_env. cbn [ebind].
  rewrite (env_segs_lookup Vk e _ H3), (key_strs_path p (proj2 (path_segs_ok p Hp))). reflexivity.
Qed.

(* @toplevel *)
Section Top.
Variables (r : bytes) (cp : list bytes) (p : kpath) (cur : mval).
Hypothesis Hr : ident_frag_ok r = true.
Hypothesis Hp : path_ok p = true.
Let pt := List.map path_tok cp.
Let segs := List.map seg_parts p.

Definition top_inp (Y : list tt) : list tt := top_in r pt (dot_join segs ++ TPunct c_eq :: Y).
Definition top_dtinp (dts R : list tt) : list tt :=
  st_in id_topleveldatetime r (TGroup DBracket pt :: dot_join segs ++ TPunct c_eq :: TGroup DParen dts :: R).
Definition top_after (v : mval) : option mval := insert_toml cur (cp ++ path_strings p) v.

Let Hsegs : segs_ok segs := proj1 (path_segs_ok p Hp).

Lemma top_first : forall Y b e R, first_tail [] top_tails Y = Some (b, e, R) ->
  first_match rules (top_inp Y) = Some (b, E_top r pt segs ++ e ++ [(Vrest, tts_bnd R)]).
Proof. intros Y b e R. exact (top_first_match_kv r pt segs Y b e R Hr Hsegs). Qed.

Lemma top_generic : forall t R valm cur' res n1 n2, is_plain t = true -> rest_ok R = true ->
  Ev (MTab []) (value_in t) (EOk valm) n1 -> top_after valm = Some cur' -> Ev cur' (top_in r pt R) res n2 ->
  Ev cur (top_inp (t :: R)) res (S (Nat.max n1 n2)).
Proof.
  intros t R valm cur' res n1 n2 Ht HR Hv Ha Hn.
  eapply Ev_insert.
  - apply top_first. unfold top_tails. apply (sel_plain _ _ _ false); assumption.
  - apply (keys_top _ cp p Hp); reflexivity.
  - reflexivity.
  - exact Hv.
  - exact Ha.
  - rewrite tr_top_next by reflexivity. exact Hn.
Qed.

Lemma top_helper : forall dts R valm cur' res n, dts <> [] ->
  datetime_value dts = EOk valm -> top_after valm = Some cur' -> Ev cur' (top_in r pt R) res n ->
  Ev cur (top_dtinp dts R) res (S n).
Proof.
  intros dts R valm cur' res n Hd Hv Ha Hn. eapply Ev_insert_dt.
  - apply (topdt_first_match r pt segs dts R Hr Hsegs Hd).
  - apply (keys_top _ cp p Hp); reflexivity.
  - rewrite (env_tts_lookup Vdatetime _ dts) by reflexivity. exact Hv.
  - exact Ha.
  - rewrite (tr_top_next r pt segs [(Vdatetime, tts_bnd dts)]) by reflexivity. exact Hn.
Qed.
End Top.

(* @table *)
Section Tab.
Variables (r : bytes) (p : kpath) (cur : mval).
Hypothesis Hr : ident_frag_ok r = true.
Hypothesis Hp : path_ok p = true.
Let segs := List.map seg_parts p.

Definition tab_inp (Y : list tt) : list tt := st_in id_table r (dot_join segs ++ TPunct c_eq :: Y).
Definition tab_dtinp (dts R : list tt) : list tt :=
  st_in id_tabledatetime r (dot_join segs ++ TPunct c_eq :: TGroup DParen dts :: R).
Definition tab_after (v : mval) : option mval := insert_toml cur (path_strings p) v.

Let Hsegs : segs_ok segs := proj1 (path_segs_ok p Hp).

Lemma tab_first : forall Y b e R, first_tail [P c_comma] tab_tails Y = Some (b, e, R) ->
  first_match rules (tab_inp Y) = Some (b, E_tab r segs ++ e ++ [(Vrest, tts_bnd R)]).
Proof. intros Y b e R. exact (tab_first_match_kv r segs Y b e R Hr Hsegs). Qed.

Lemma tab_generic : forall t R valm cur' res n1 n2, is_plain t = true -> comma_rest_ok R = true ->
  Ev (MTab []) (value_in t) (EOk valm) n1 -> tab_after valm = Some cur' -> Ev cur' (st_in id_table r R) res n2 ->
  Ev cur (tab_inp (t :: TPunct c_comma :: R)) res (S (Nat.max n1 n2)).
Proof.
  intros t R valm cur' res n1 n2 Ht HR Hv Ha Hn.
  eapply Ev_insert.
  - apply tab_first. unfold tab_tails. apply (sel_plain _ _ _ true); assumption.
  - apply (keys_tab _ p Hp); reflexivity.
  - reflexivity.
  - exact Hv.
  - exact Ha.
  - rewrite tr_tab_next by reflexivity. exact Hn.
Qed.

Lemma tab_helper : forall dts R valm cur' res n,
  datetime_value dts = EOk valm -> tab_after valm = Some cur' -> Ev cur' (st_in id_table r R) res n ->
  Ev cur (tab_dtinp dts R) res (S n).
Proof.
  intros dts R valm cur' res n Hv Ha Hn. eapply Ev_insert_dt.
  - apply (tabdt_first_match r segs dts R Hr Hsegs).
  - apply (keys_tab _ p Hp); reflexivity.
  - rewrite (env_tts_lookup Vdatetime _ dts) by reflexivity. exact Hv.
  - exact Ha.
  - rewrite (tr_tab_next r segs [(Vdatetime, tts_bnd dts)]) by reflexivity. exact Hn.
Qed.
End Tab.

(* @array *)
Section Arr.
Variables (r : bytes) (l : list mval).
Hypothesis Hr : ident_frag_ok r = true.

Definition arr_dtinp (dts R : list tt) : list tt := st_in id_arraydatetime r (TGroup DParen dts :: R).
Definition arr_after (v : mval) : option mval := Some (MArr (l ++ [v])).

(* an element is not the end of the input: it has at least one token *)
Lemma arr_first : forall Y b e R, Y <> [] -> first_tail [P c_comma] arr_tails Y = Some (b, e, R) ->
  first_match rules (st_in id_array r Y) = Some (b, E_arr r ++ e ++ [(Vrest, tts_bnd R)]).
Proof. intros [|t Y] b e R Hne; [contradiction|]. exact (arr_first_match_el r t Y b e R Hr). Qed.

Lemma arr_generic : forall t R valm cur' res n1 n2, is_plain t = true -> comma_rest_ok R = true ->
  Ev (MTab []) (value_in t) (EOk valm) n1 -> arr_after valm = Some cur' -> Ev cur' (st_in id_array r R) res n2 ->
  Ev (MArr l) (st_in id_array r (t :: TPunct c_comma :: R)) res (S (Nat.max n1 n2)).
Proof.
  intros t R valm cur' res n1 n2 Ht HR Hv Ha Hn. injection Ha as <-.
  eapply Ev_arrpush.
  - apply arr_first; [discriminate|]. unfold arr_tails. apply (sel_plain _ _ _ true); assumption.
  - reflexivity.
  - exact Hv.
  - rewrite tr_arr_next by reflexivity. exact Hn.
Qed.

Lemma arr_helper : forall dts R valm cur' res n,
  datetime_value dts = EOk valm -> arr_after valm = Some cur' -> Ev cur' (st_in id_array r R) res n ->
  Ev (MArr l) (arr_dtinp dts R) res (S n).
Proof.
  intros dts R valm cur' res n Hv Ha Hn. injection Ha as <-. eapply Ev_arrpush_dt.
  - apply (arrdt_first_match r dts R Hr).
  - rewrite (env_tts_lookup Vdatetime _ dts) by reflexivity. exact Hv.
  - rewrite (tr_arr_next r [(Vdatetime, tts_bnd dts)]) by reflexivity. exact Hn.
Qed.
End Arr.
