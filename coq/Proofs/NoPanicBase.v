(* Proofs/NoPanicBase.v — C04, part 1: panic-freedom and termination facts of the mini-winnow
   combinators (Base/Winnow.v), proved once over ARBITRARY sub-parsers.

   Four judgements on a parser p:
     monoC C p   every successful run consumes a prefix t of the input (rest i = t ++ rest i'),
                 advances `pos` by exactly |t|, leaves `depth` unchanged, and every consumed byte
                 is in the class C (`mono` = no constraint on the bytes);
     progress p  every successful run consumes at least one byte;
     safe_on P p on every input satisfying P the result is not `Panic _` (`safe` = on every input);
     valP V p    every value returned satisfies V.
   Nothing is required of the cursor carried by Bt/Cut (it is never used to continue parsing).

   For the fuelled loops: if the element (and separator) parsers are mono, safe and make
   progress, the loop with fuel `S (length (rest i))` is safe: in particular it reaches neither
   `P_out_of_fuel` (termination: every iteration that continues has consumed >= 1 byte) nor
   `P_repeat_no_progress` (winnow's debug assertion). *)
From TV Require Import Base.Prelude Base.Utf8 Base.Winnow.
Require Import Lia ZifyBool ZifyN ZifyNat.
From TV Require Import Base.Utf8Facts Base.WinnowFacts.

Definition nopanic {A} (r : res A) : Prop := match r with Panic _ => False | _ => True end.

Definition anyb (b : byte) : bool := true.
Definition ascii (b : byte) : bool := (b2n b <=? 127)%N.

(* i' is i after consuming a prefix whose bytes are all in C *)
Definition ext (C : byte -> bool) (i i' : input) : Prop :=
  exists t, rest i = t ++ rest i' /\ pos i' = (pos i + N.of_nat (length t))%N
            /\ depth i' = depth i /\ forallb C t = true.

Definition monoC (C : byte -> bool) {A} (p : parser A) : Prop :=
  forall i a i', p i = Ok a i' -> ext C i i'.
Notation mono := (monoC anyb).
Definition progress {A} (p : parser A) : Prop :=
  forall i a i', p i = Ok a i' -> length (rest i') < length (rest i).
Definition safe_on (P : input -> Prop) {A} (p : parser A) : Prop :=
  forall i, P i -> nopanic (p i).
Definition anyi (i : input) : Prop := True.
Notation safe := (safe_on anyi).
Definition valP {A} (V : A -> Prop) (p : parser A) : Prop :=
  forall i a i', p i = Ok a i' -> V a.

(* input predicates that only look at how much input is left (downward closed) *)
Definition closed (P : input -> Prop) : Prop :=
  forall i i', P i -> length (rest i') <= length (rest i) -> P i'.
Definition shorter (n : nat) (i : input) : Prop := length (rest i) < n.

Lemma closed_anyi : closed anyi. Proof. intros i i' _ _. exact I. Qed.
Lemma closed_shorter n : closed (shorter n). Proof. unfold closed, shorter. intros. lia. Qed.

(* ---- ext -------------------------------------------------------------------------------------- *)
Lemma forallb_anyb t : forallb anyb t = true.
Proof. induction t; simpl; auto. Qed.

Lemma ext_refl C i : ext C i i.
Proof. exists []. cbn. repeat split; auto. lia. Qed.

Lemma ext_trans C i1 i2 i3 : ext C i1 i2 -> ext C i2 i3 -> ext C i1 i3.
Proof.
  intros (t1 & R1 & P1 & D1 & C1) (t2 & R2 & P2 & D2 & C2). exists (t1 ++ t2).
  split; [rewrite R1, R2, app_assoc; reflexivity|]. split; [rewrite P2, P1, app_length; lia|].
  split; [congruence|]. rewrite forallb_app, C1, C2. reflexivity.
Qed.

Lemma ext_len C i i' : ext C i i' -> length (rest i') <= length (rest i).
Proof. intros (t & R & _). rewrite R, app_length. lia. Qed.

Lemma ext_depth C i i' : ext C i i' -> depth i' = depth i.
Proof. intros (t & _ & _ & D & _). exact D. Qed.

Lemma ext_weaken (C C' : byte -> bool) i i' :
  (forall b, C b = true -> C' b = true) -> ext C i i' -> ext C' i i'.
Proof.
  intros H (t & R & P & D & F). exists t. repeat split; auto.
  rewrite forallb_forall in *. auto.
Qed.

Lemma ext_any C i i' : ext C i i' -> ext anyb i i'.
Proof. apply ext_weaken. reflexivity. Qed.

Lemma ext_advance C n i :
  n <= length (rest i) -> forallb C (firstn n (rest i)) = true -> ext C i (advance n i).
Proof.
  intros Hn HC. exists (firstn n (rest i)). unfold advance; cbn [rest pos depth].
  rewrite firstn_skipn, firstn_length. repeat split; auto. lia.
Qed.

(* the text consumed, as `taken` computes it *)
Lemma ext_taken C i i' :
  ext C i i' -> forallb C (firstn (N.to_nat (pos i' - pos i)) (rest i)) = true.
Proof.
  intros (t & R & P & _ & F). rewrite R, P.
  replace (N.to_nat (pos i + N.of_nat (length t) - pos i)) with (length t) by lia.
  rewrite firstn_app, Nat.sub_diag, firstn_all. cbn [firstn]. rewrite app_nil_r. exact F.
Qed.

Lemma ext_pos C i i' : ext C i i' ->
  (pos i' + N.of_nat (length (rest i')) = pos i + N.of_nat (length (rest i)))%N.
Proof. intros (t & R & P & _). rewrite R, P, app_length. lia. Qed.

Lemma ext_pos_le C i i' : ext C i i' -> (pos i <= pos i')%N.
Proof. intros (t & R & P & _). lia. Qed.

(* pos unchanged <-> nothing consumed *)
Lemma ext_pos_eq C i i' : ext C i i' -> pos i' = pos i -> length (rest i') = length (rest i).
Proof. intros (t & R & P & _) E. rewrite R, app_length. assert (length t = 0) by lia. lia. Qed.

(* ---- generic facts about the judgements ---------------------------------------------------------- *)
Lemma monoC_weaken (C C' : byte -> bool) {A} (p : parser A) :
  (forall b, C b = true -> C' b = true) -> monoC C p -> monoC C' p.
Proof. intros H Hp i a i' E. eapply ext_weaken; eauto. Qed.

Lemma monoC_mono C {A} (p : parser A) : monoC C p -> mono p.
Proof. apply monoC_weaken. reflexivity. Qed.

Lemma safe_safe_on P {A} (p : parser A) : safe p -> safe_on P p.
Proof. intros H i _. apply H. exact I. Qed.

Lemma safe_on_weaken (P Q : input -> Prop) {A} (p : parser A) :
  (forall i, Q i -> P i) -> safe_on P p -> safe_on Q p.
Proof. intros H Hp i Hi. apply Hp, H, Hi. Qed.

Lemma valP_weaken {A} (V W : A -> Prop) (p : parser A) :
  (forall a, V a -> W a) -> valP V p -> valP W p.
Proof. intros H Hp i a i' E. eapply H, Hp, E. Qed.

Lemma valP_and {A} (V W : A -> Prop) (p : parser A) :
  valP V p -> valP W p -> valP (fun a => V a /\ W a) p.
Proof. intros H1 H2 i a i' E. split; eauto. Qed.

Lemma valP_true {A} (p : parser A) : valP (fun _ => True) p.
Proof. intros i a i' _. exact I. Qed.

(* `fun j => h j j`: parsers whose body mentions their own input (checkpoints) *)
Lemma monoC_diag C {A} (h : input -> parser A) : (forall j, monoC C (h j)) -> monoC C (fun j => h j j).
Proof. intros H i a i' E. eapply H; eauto. Qed.
Lemma progress_diag {A} (h : input -> parser A) : (forall j, progress (h j)) -> progress (fun j => h j j).
Proof. intros H i a i' E. eapply H; eauto. Qed.
Lemma safe_diag P {A} (h : input -> parser A) : (forall j, safe_on P (h j)) -> safe_on P (fun j => h j j).
Proof. intros H i Hi. apply H, Hi. Qed.
Lemma valP_diag {A} (V : A -> Prop) (h : input -> parser A) : (forall j, valP V (h j)) -> valP V (fun j => h j j).
Proof. intros H i a i' E. eapply H; eauto. Qed.

Ltac dres E := match goal with
  | |- context [match ?p ?i with Ok _ _ => _ | Bt _ _ => _ | Cut _ _ => _ | Panic _ => _ end] =>
      destruct (p i) as [?a ?i|?e ?i|?e ?i|?s] eqn:E
  end.
Ltac dresH H E := match type of H with
  | context [match ?p ?i with Ok _ _ => _ | Bt _ _ => _ | Cut _ _ => _ | Panic _ => _ end] =>
      destruct (p i) as [?a ?i|?e ?i|?e ?i|?s] eqn:E; try discriminate H
  end.

(* ---- primitives --------------------------------------------------------------------------------- *)
Section Prims.
  Context {A : Type}.
  Variable C : byte -> bool.

  Lemma monoC_ret (a : A) : monoC C (ret a).
  Proof. intros i x i' E. inversion E; subst. apply ext_refl. Qed.
  Lemma safe_ret P (a : A) : safe_on P (ret a).
  Proof. intros i _. exact I. Qed.
  Lemma valP_ret (V : A -> Prop) (a : A) : V a -> valP V (ret a).
  Proof. intros H i x i' E. inversion E; subst; auto. Qed.

  Lemma monoC_fail : monoC C (@fail A).
  Proof. intros i x i' E. discriminate. Qed.
  Lemma progress_fail : progress (@fail A).
  Proof. intros i x i' E. discriminate. Qed.
  Lemma safe_fail P : safe_on P (@fail A).
  Proof. intros i _. exact I. Qed.
  Lemma valP_fail (V : A -> Prop) : valP V (@fail A).
  Proof. intros i x i' E. discriminate. Qed.

  Lemma monoC_cut_custom c : monoC C (@cut_custom A c).
  Proof. intros i x i' E. discriminate. Qed.
  Lemma safe_cut_custom P c : safe_on P (@cut_custom A c).
  Proof. intros i _. exact I. Qed.
End Prims.

Lemma monoC_empty C : monoC C empty. Proof. apply monoC_ret. Qed.
Lemma safe_empty P : safe_on P empty. Proof. apply safe_ret. Qed.

Lemma advance1_ext C i b r : rest i = b :: r -> C b = true -> ext C i (advance 1 i).
Proof.
  intros R Hb. apply ext_advance; rewrite R; cbn; [lia|]. rewrite Hb. reflexivity.
Qed.
Lemma advance1_len i b r : rest i = b :: r -> length (rest (advance 1 i)) < length (rest i).
Proof. intros R. unfold advance; cbn [rest]. rewrite R. cbn. lia. Qed.

Lemma mono_any : mono any.
Proof.
  intros i a i' E. unfold any in E. destruct (rest i) as [|b r] eqn:R; [discriminate|].
  inversion E; subst. eapply advance1_ext; eauto.
Qed.
Lemma progress_any : progress any.
Proof.
  intros i a i' E. unfold any in E. destruct (rest i) as [|b r] eqn:R; [discriminate|].
  inversion E; subst. rewrite <- R. eapply advance1_len; eauto.
Qed.
Lemma safe_any P : safe_on P any.
Proof. intros i _. unfold any. destruct (rest i); exact I. Qed.

Lemma monoC_one_of C f : (forall b, f b = true -> C b = true) -> monoC C (one_of f).
Proof.
  intros H i a i' E. unfold one_of in E. destruct (rest i) as [|b r] eqn:R; [discriminate|].
  destruct (f b) eqn:F; [|discriminate]. inversion E; subst. eapply advance1_ext; eauto.
Qed.
Lemma mono_one_of f : mono (one_of f).
Proof. apply monoC_one_of. reflexivity. Qed.
Lemma progress_one_of f : progress (one_of f).
Proof.
  intros i a i' E. unfold one_of in E. destruct (rest i) as [|b r] eqn:R; [discriminate|].
  destruct (f b) eqn:F; [|discriminate]. inversion E; subst. rewrite <- R. eapply advance1_len; eauto.
Qed.
Lemma safe_one_of P f : safe_on P (one_of f).
Proof. intros i _. unfold one_of. destruct (rest i) as [|b r]; [exact I|]. destruct (f b); exact I. Qed.
Lemma valP_one_of f : valP (fun b => f b = true) (one_of f).
Proof.
  intros i a i' E. unfold one_of in E. destruct (rest i) as [|b r] eqn:R; [discriminate|].
  destruct (f b) eqn:F; [|discriminate]. inversion E; subst. exact F.
Qed.

Lemma monoC_none_of C f : (forall b, f b = false -> C b = true) -> monoC C (none_of f).
Proof. intro H. apply monoC_one_of. intros b Hb. apply H. destruct (f b); [discriminate|reflexivity]. Qed.
Lemma mono_none_of f : mono (none_of f). Proof. apply mono_one_of. Qed.
Lemma progress_none_of f : progress (none_of f). Proof. apply progress_one_of. Qed.
Lemma safe_none_of P f : safe_on P (none_of f). Proof. apply safe_one_of. Qed.

Lemma monoC_byte_ C x : C x = true -> monoC C (byte_ x).
Proof. intro H. apply monoC_one_of. intros b Hb. apply byte_eqb_eq in Hb. subst. exact H. Qed.
Lemma mono_byte_ x : mono (byte_ x). Proof. apply mono_one_of. Qed.
Lemma progress_byte_ x : progress (byte_ x). Proof. apply progress_one_of. Qed.
Lemma safe_byte_ P x : safe_on P (byte_ x). Proof. apply safe_one_of. Qed.
Lemma valP_byte_ x : valP (fun b => b = x) (byte_ x).
Proof. eapply valP_weaken; [|apply valP_one_of]. intros a H. apply byte_eqb_eq in H. auto. Qed.

Lemma lit_inv l i a i' : lit l i = Ok a i' -> a = l /\ i' = advance (length l) i /\ rest i = l ++ rest i'.
Proof.
  unfold lit. destruct (strip_prefix l (rest i)) as [r|] eqn:S; [|discriminate].
  intro E; inversion E; subst a i'. apply strip_prefix_spec in S. repeat split.
  unfold advance; cbn [rest]. rewrite S at 1. f_equal. rewrite S. clear. induction l; simpl; auto.
Qed.
Lemma monoC_lit C l : forallb C l = true -> monoC C (lit l).
Proof.
  intros H i a i' E. apply lit_inv in E as (-> & -> & R). exists l.
  unfold advance in *; cbn [rest pos depth] in *. repeat split; auto.
Qed.
Lemma mono_lit l : mono (lit l). Proof. apply monoC_lit, forallb_anyb. Qed.
Lemma progress_lit l : l <> [] -> progress (lit l).
Proof.
  intros H i a i' E. apply lit_inv in E as (_ & _ & R). rewrite R, app_length.
  destruct l; [congruence|]. cbn. lia.
Qed.
Lemma safe_lit P l : safe_on P (lit l).
Proof. intros i _. unfold lit. destruct (strip_prefix l (rest i)); exact I. Qed.
Lemma valP_lit l : valP (fun b => b = l) (lit l).
Proof. intros i a i' E. apply lit_inv in E. tauto. Qed.

(* take_while *)

Lemma take_while_inv m n f i a i' :
  take_while_mn m n f i = Ok a i' ->
  rest i = a ++ rest i' /\ i' = advance (length a) i /\ forallb f a = true /\ m <= length a
  /\ match n with Some n' => length a <= n' | None => True end.
Proof.
  unfold take_while_mn.
  set (got := match n with Some n' => take_upto f n' (rest i) | None => fst (span_while f (rest i)) end).
  assert (Hp : exists r, rest i = got ++ r).
  { subst got. destruct n; [apply take_upto_prefix|]. eexists. symmetry. apply span_while_app. }
  assert (Ha : forallb f got = true).
  { subst got. destruct n; [apply take_upto_all | apply span_while_all]. }
  assert (Hn : match n with Some n' => length got <= n' | None => True end).
  { subst got. destruct n; [apply take_upto_len | exact I]. }
  destruct (Nat.ltb (length got) m) eqn:L; [discriminate|]. apply Nat.ltb_ge in L.
  intro E; inversion E; subst a i'. destruct Hp as [r Hr]. repeat split; auto.
  unfold advance; cbn [rest]. rewrite Hr at 1. f_equal. rewrite Hr.
  clear. induction got; simpl; auto.
Qed.

Lemma monoC_take_while C m n f : (forall b, f b = true -> C b = true) -> monoC C (take_while_mn m n f).
Proof.
  intros H i a i' E. apply take_while_inv in E as (R & -> & F & _). exists a.
  unfold advance in *; cbn [rest pos depth] in *. repeat split; auto.
  rewrite forallb_forall in *. auto.
Qed.
Lemma mono_take_while m n f : mono (take_while_mn m n f).
Proof. apply monoC_take_while. reflexivity. Qed.
Lemma progress_take_while m n f : 1 <= m -> progress (take_while_mn m n f).
Proof.
  intros H i a i' E. apply take_while_inv in E as (R & _ & _ & L & _). rewrite R, app_length. lia.
Qed.
Lemma safe_take_while P m n f : safe_on P (take_while_mn m n f).
Proof. intros i _. unfold take_while_mn. match goal with |- context [if ?c then _ else _] => destruct c end; exact I. Qed.
Lemma valP_take_while m n f :
  valP (fun a => forallb f a = true /\ m <= length a /\ match n with Some n' => length a <= n' | None => True end)
       (take_while_mn m n f).
Proof. intros i a i' E. apply take_while_inv in E. tauto. Qed.

Lemma mono_take_while0 f : mono (take_while0 f). Proof. apply mono_take_while. Qed.
Lemma mono_take_while1 f : mono (take_while1 f). Proof. apply mono_take_while. Qed.
Lemma progress_take_while1 f : progress (take_while1 f). Proof. apply progress_take_while. lia. Qed.
Lemma safe_take_while0 P f : safe_on P (take_while0 f). Proof. apply safe_take_while. Qed.
Lemma safe_take_while1 P f : safe_on P (take_while1 f). Proof. apply safe_take_while. Qed.

Lemma mono_take_n n : mono (take_n n).
Proof.
  intros i a i' E. unfold take_n in E. destruct (Nat.ltb (length (rest i)) n) eqn:L; [discriminate|].
  apply Nat.ltb_ge in L. inversion E; subst. apply ext_advance; [lia|apply forallb_anyb].
Qed.
Lemma safe_take_n P n : safe_on P (take_n n).
Proof. intros i _. unfold take_n. destruct (Nat.ltb (length (rest i)) n); exact I. Qed.

Lemma mono_rest_ : mono rest_.
Proof. intros i a i' E. inversion E; subst. apply ext_advance; [lia|apply forallb_anyb]. Qed.
Lemma safe_rest_ P : safe_on P rest_.
Proof. intros i _. exact I. Qed.

Lemma monoC_eof C : monoC C eof.
Proof. intros i a i' E. unfold eof in E. destruct (rest i); inversion E; subst. apply ext_refl. Qed.
Lemma safe_eof P : safe_on P eof.
Proof. intros i _. unfold eof. destruct (rest i); exact I. Qed.

(* ---- combinators ---------------------------------------------------------------------------------- *)
Section Combs.
  Context {A B : Type}.
  Variable C : byte -> bool.
  Variable P : input -> Prop.
  Hypothesis Pc : closed P.

  Lemma monoC_bind (p : parser A) (f : A -> parser B) :
    monoC C p -> (forall a, monoC C (f a)) -> monoC C (bind p f).
  Proof.
    intros Hp Hf i b i' H. unfold bind in H. dresH H E.
    eapply ext_trans; [eapply Hp; eauto | eapply Hf; eauto].
  Qed.
  (* the continuation only needs to be mono on the values p can return *)
  Lemma monoC_bind_val (V : A -> Prop) (p : parser A) (f : A -> parser B) :
    monoC C p -> valP V p -> (forall a, V a -> monoC C (f a)) -> monoC C (bind p f).
  Proof.
    intros Hp Hv Hf i b i' H. unfold bind in H. dresH H E.
    eapply ext_trans; [eapply Hp; eauto | eapply Hf; eauto].
  Qed.
  Lemma progress_bind_l (p : parser A) (f : A -> parser B) :
    progress p -> (forall a, mono (f a)) -> progress (bind p f).
  Proof.
    intros Hp Hf i b i' H. unfold bind in H. dresH H E.
    apply Hp in E. apply Hf, ext_len in H. lia.
  Qed.
  Lemma progress_bind_r (p : parser A) (f : A -> parser B) :
    mono p -> (forall a, progress (f a)) -> progress (bind p f).
  Proof.
    intros Hp Hf i b i' H. unfold bind in H. dresH H E.
    apply Hp, ext_len in E. apply Hf in H. lia.
  Qed.
  Lemma safe_bind (p : parser A) (f : A -> parser B) :
    mono p -> safe_on P p -> (forall a, safe_on P (f a)) -> safe_on P (bind p f).
  Proof.
    intros Hm Hp Hf i Hi. unfold bind. specialize (Hp i Hi). dres E; auto.
    apply Hf. eapply Pc; eauto. eapply ext_len, Hm, E.
  Qed.
  Lemma safe_bind_val (V : A -> Prop) (p : parser A) (f : A -> parser B) :
    mono p -> safe_on P p -> valP V p -> (forall a, V a -> safe_on P (f a)) -> safe_on P (bind p f).
  Proof.
    intros Hm Hp Hv Hf i Hi. unfold bind. specialize (Hp i Hi). dres E; auto.
    apply Hf; [eapply Hv, E|]. eapply Pc; eauto. eapply ext_len, Hm, E.
  Qed.
  Lemma valP_bind (V : B -> Prop) (p : parser A) (f : A -> parser B) :
    (forall a, valP V (f a)) -> valP V (bind p f).
  Proof. intros Hf i b i' H. unfold bind in H. dresH H E. eapply Hf, H. Qed.
  Lemma valP_bind_val (W : A -> Prop) (V : B -> Prop) (p : parser A) (f : A -> parser B) :
    valP W p -> (forall a, W a -> valP V (f a)) -> valP V (bind p f).
  Proof. intros Hw Hf i b i' H. unfold bind in H. dresH H E. eapply Hf; [eapply Hw, E|apply H]. Qed.

  Lemma monoC_pmap (g : A -> B) (p : parser A) : monoC C p -> monoC C (pmap g p).
  Proof. intros Hp i b i' H. unfold pmap in H. dresH H E. inversion H; subst. eapply Hp, E. Qed.
  Lemma progress_pmap (g : A -> B) (p : parser A) : progress p -> progress (pmap g p).
  Proof. intros Hp i b i' H. unfold pmap in H. dresH H E. inversion H; subst. eapply Hp, E. Qed.
  Lemma safe_pmap (g : A -> B) (p : parser A) : safe_on P p -> safe_on P (pmap g p).
  Proof. intros Hp i Hi. unfold pmap. specialize (Hp i Hi). dres E; auto. Qed.
  Lemma valP_pmap (V : A -> Prop) (W : B -> Prop) (g : A -> B) (p : parser A) :
    valP V p -> (forall a, V a -> W (g a)) -> valP W (pmap g p).
  Proof. intros Hp Hg i b i' H. unfold pmap in H. dresH H E. inversion H; subst. eapply Hg, Hp, E. Qed.

  Lemma monoC_pvalue (b : B) (p : parser A) : monoC C p -> monoC C (pvalue b p).
  Proof. apply monoC_pmap. Qed.
  Lemma progress_pvalue (b : B) (p : parser A) : progress p -> progress (pvalue b p).
  Proof. apply progress_pmap. Qed.
  Lemma safe_pvalue (b : B) (p : parser A) : safe_on P p -> safe_on P (pvalue b p).
  Proof. apply safe_pmap. Qed.

  Lemma monoC_verify_map (g : A -> option B) (p : parser A) : monoC C p -> monoC C (verify_map g p).
  Proof.
    intros Hp i b i' H. unfold verify_map in H. dresH H E. destruct (g a); inversion H; subst. eapply Hp, E.
  Qed.
  Lemma progress_verify_map (g : A -> option B) (p : parser A) : progress p -> progress (verify_map g p).
  Proof.
    intros Hp i b i' H. unfold verify_map in H. dresH H E. destruct (g a); inversion H; subst. eapply Hp, E.
  Qed.
  Lemma safe_verify_map (g : A -> option B) (p : parser A) : safe_on P p -> safe_on P (verify_map g p).
  Proof. intros Hp i Hi. unfold verify_map. specialize (Hp i Hi). dres E; auto. destruct (g a); exact I. Qed.

  Lemma monoC_try_map (g : A -> tm B) (p : parser A) : monoC C p -> monoC C (try_map g p).
  Proof.
    intros Hp i b i' H. unfold try_map in H. dresH H E. destruct (g a); inversion H; subst. eapply Hp, E.
  Qed.
  Lemma progress_try_map (g : A -> tm B) (p : parser A) : progress p -> progress (try_map g p).
  Proof.
    intros Hp i b i' H. unfold try_map in H. dresH H E. destruct (g a); inversion H; subst. eapply Hp, E.
  Qed.
  (* the closure must not reach a panic site on any value p can return *)
  Lemma safe_try_map (V : A -> Prop) (g : A -> tm B) (p : parser A) :
    safe_on P p -> valP V p -> (forall a, V a -> forall s, g a <> TmPanic s) -> safe_on P (try_map g p).
  Proof.
    intros Hp Hv Hg i Hi. unfold try_map. specialize (Hp i Hi). dres E; auto.
    specialize (Hg a (Hv _ _ _ E)). destruct (g a); try exact I. eapply Hg; reflexivity.
  Qed.
  Lemma safe_try_map_total (g : A -> tm B) (p : parser A) :
    safe_on P p -> (forall a s, g a <> TmPanic s) -> safe_on P (try_map g p).
  Proof. intros Hp Hg. eapply safe_try_map; [exact Hp|apply valP_true|]. intros a _. apply Hg. Qed.
  Lemma valP_try_map (V : A -> Prop) (W : B -> Prop) (g : A -> tm B) (p : parser A) :
    valP V p -> (forall a b, V a -> g a = TmOk b -> W b) -> valP W (try_map g p).
  Proof.
    intros Hp Hg i b i' H. unfold try_map in H. dresH H E. destruct (g a) eqn:G; inversion H; subst.
    eapply Hg; [eapply Hp, E|exact G].
  Qed.

  Lemma monoC_and_then (p : parser A) (g : A -> sub B) : monoC C p -> monoC C (and_then p g).
  Proof.
    intros Hp i b i' H. unfold and_then in H. dresH H E. destruct (g a); inversion H; subst. eapply Hp, E.
  Qed.
  Lemma progress_and_then (p : parser A) (g : A -> sub B) : progress p -> progress (and_then p g).
  Proof.
    intros Hp i b i' H. unfold and_then in H. dresH H E. destruct (g a); inversion H; subst. eapply Hp, E.
  Qed.
  Lemma safe_and_then (p : parser A) (g : A -> sub B) :
    safe_on P p -> (forall a s, g a <> SubPanic s) -> safe_on P (and_then p g).
  Proof.
    intros Hp Hg i Hi. unfold and_then. specialize (Hp i Hi). dres E; auto.
    specialize (Hg a). destruct (g a); try exact I. eapply Hg; reflexivity.
  Qed.
End Combs.

Section Combs1.
  Context {A : Type}.
  Variable C : byte -> bool.
  Variable P : input -> Prop.
  Hypothesis Pc : closed P.

  Lemma monoC_pvoid (p : parser A) : monoC C p -> monoC C (pvoid p).
  Proof. apply monoC_pmap. Qed.
  Lemma progress_pvoid (p : parser A) : progress p -> progress (pvoid p).
  Proof. apply progress_pmap. Qed.
  Lemma safe_pvoid (p : parser A) : safe_on P p -> safe_on P (pvoid p).
  Proof. apply safe_pmap. Qed.

  Lemma monoC_peek (p : parser A) : monoC C (peek p).
  Proof. intros i a i' H. unfold peek in H. dresH H E. inversion H; subst. apply ext_refl. Qed.
  Lemma safe_peek (p : parser A) : safe_on P p -> safe_on P (peek p).
  Proof. intros Hp i Hi. unfold peek. specialize (Hp i Hi). dres E; auto. Qed.
  Lemma valP_peek (V : A -> Prop) (p : parser A) : valP V p -> valP V (peek p).
  Proof. intros Hp i a i' H. unfold peek in H. dresH H E. inversion H; subst. eapply Hp, E. Qed.

  Lemma monoC_opt (p : parser A) : monoC C p -> monoC C (opt p).
  Proof.
    intros Hp i a i' H. unfold opt in H. dresH H E; inversion H; subst; [eapply Hp, E|apply ext_refl].
  Qed.
  Lemma safe_opt (p : parser A) : safe_on P p -> safe_on P (opt p).
  Proof. intros Hp i Hi. unfold opt. specialize (Hp i Hi). dres E; auto. Qed.
  Lemma valP_opt (V : A -> Prop) (p : parser A) :
    valP V p -> valP (fun o => match o with Some a => V a | None => True end) (opt p).
  Proof. intros Hp i a i' H. unfold opt in H. dresH H E; inversion H; subst; [eapply Hp, E|exact I]. Qed.

  Lemma monoC_cut_err (p : parser A) : monoC C p -> monoC C (cut_err p).
  Proof. intros Hp i a i' H. unfold cut_err in H. dresH H E. eapply Hp. rewrite E. exact H. Qed.
  Lemma progress_cut_err (p : parser A) : progress p -> progress (cut_err p).
  Proof. intros Hp i a i' H. unfold cut_err in H. dresH H E. eapply Hp. rewrite E. exact H. Qed.
  Lemma safe_cut_err (p : parser A) : safe_on P p -> safe_on P (cut_err p).
  Proof. intros Hp i Hi. unfold cut_err. specialize (Hp i Hi). destruct (p i); auto. Qed.
  Lemma valP_cut_err (V : A -> Prop) (p : parser A) : valP V p -> valP V (cut_err p).
  Proof. intros Hp i a i' H. unfold cut_err in H. dresH H E. eapply Hp. rewrite E. exact H. Qed.

  Lemma monoC_context (p : parser A) : monoC C p -> monoC C (context p).
  Proof. intros Hp i a i' H. unfold context in H. dresH H E. eapply Hp. rewrite E. exact H. Qed.
  Lemma progress_context (p : parser A) : progress p -> progress (context p).
  Proof. intros Hp i a i' H. unfold context in H. dresH H E. eapply Hp. rewrite E. exact H. Qed.
  Lemma safe_context (p : parser A) : safe_on P p -> safe_on P (context p).
  Proof. intros Hp i Hi. unfold context. specialize (Hp i Hi). destruct (p i); auto. Qed.
  Lemma valP_context (V : A -> Prop) (p : parser A) : valP V p -> valP V (context p).
  Proof. intros Hp i a i' H. unfold context in H. dresH H E. eapply Hp. rewrite E. exact H. Qed.

  Lemma monoC_alt (p q : parser A) : monoC C p -> monoC C q -> monoC C (alt p q).
  Proof.
    intros Hp Hq i a i' H. unfold alt in H. destruct (p i) eqn:E; try discriminate.
    - eapply Hp. rewrite E. exact H.
    - eapply Hq, H.
  Qed.
  Lemma progress_alt (p q : parser A) : progress p -> progress q -> progress (alt p q).
  Proof.
    intros Hp Hq i a i' H. unfold alt in H. destruct (p i) eqn:E; try discriminate.
    - eapply Hp. rewrite E. exact H.
    - eapply Hq, H.
  Qed.
  Lemma safe_alt (p q : parser A) : safe_on P p -> safe_on P q -> safe_on P (alt p q).
  Proof.
    intros Hp Hq i Hi. unfold alt. specialize (Hp i Hi). specialize (Hq i Hi). destruct (p i); auto.
  Qed.
  Lemma valP_alt (V : A -> Prop) (p q : parser A) : valP V p -> valP V q -> valP V (alt p q).
  Proof.
    intros Hp Hq i a i' H. unfold alt in H. destruct (p i) eqn:E; try discriminate.
    - eapply Hp. rewrite E. exact H.
    - eapply Hq, H.
  Qed.

  Lemma monoC_verify (f : A -> bool) (p : parser A) : monoC C p -> monoC C (verify f p).
  Proof.
    intros Hp i a i' H. unfold verify in H. dresH H E. destruct (f a0); inversion H; subst. eapply Hp, E.
  Qed.
  Lemma progress_verify (f : A -> bool) (p : parser A) : progress p -> progress (verify f p).
  Proof.
    intros Hp i a i' H. unfold verify in H. dresH H E. destruct (f a0); inversion H; subst. eapply Hp, E.
  Qed.
  Lemma safe_verify (f : A -> bool) (p : parser A) : safe_on P p -> safe_on P (verify f p).
  Proof. intros Hp i Hi. unfold verify. specialize (Hp i Hi). dres E; auto. destruct (f a); exact I. Qed.
  Lemma valP_verify (V : A -> Prop) (f : A -> bool) (p : parser A) :
    valP V p -> valP (fun a => V a /\ f a = true) (verify f p).
  Proof.
    intros Hp i a i' H. unfold verify in H. dresH H E. destruct (f a0) eqn:F; inversion H; subst.
    split; [eapply Hp, E|exact F].
  Qed.

  Lemma monoC_span_ (p : parser A) : monoC C p -> monoC C (span_ p).
  Proof. intros Hp i a i' H. unfold span_ in H. dresH H E. inversion H; subst. eapply Hp, E. Qed.
  Lemma progress_span_ (p : parser A) : progress p -> progress (span_ p).
  Proof. intros Hp i a i' H. unfold span_ in H. dresH H E. inversion H; subst. eapply Hp, E. Qed.
  Lemma safe_span_ (p : parser A) : safe_on P p -> safe_on P (span_ p).
  Proof. intros Hp i Hi. unfold span_. specialize (Hp i Hi). dres E; auto. Qed.

  Lemma monoC_with_span (p : parser A) : monoC C p -> monoC C (with_span p).
  Proof. intros Hp i a i' H. unfold with_span in H. dresH H E. inversion H; subst. eapply Hp, E. Qed.
  Lemma progress_with_span (p : parser A) : progress p -> progress (with_span p).
  Proof. intros Hp i a i' H. unfold with_span in H. dresH H E. inversion H; subst. eapply Hp, E. Qed.
  Lemma safe_with_span (p : parser A) : safe_on P p -> safe_on P (with_span p).
  Proof. intros Hp i Hi. unfold with_span. specialize (Hp i Hi). dres E; auto. Qed.
  Lemma valP_with_span (V : A -> Prop) (p : parser A) : valP V p -> valP (fun x => V (fst x)) (with_span p).
  Proof. intros Hp i a i' H. unfold with_span in H. dresH H E. inversion H; subst. eapply Hp, E. Qed.

  Lemma monoC_taken (p : parser A) : monoC C p -> monoC C (taken p).
  Proof. intros Hp i a i' H. unfold taken in H. dresH H E. inversion H; subst. eapply Hp, E. Qed.
  Lemma progress_taken (p : parser A) : progress p -> progress (taken p).
  Proof. intros Hp i a i' H. unfold taken in H. dresH H E. inversion H; subst. eapply Hp, E. Qed.
  Lemma safe_taken (p : parser A) : safe_on P p -> safe_on P (taken p).
  Proof. intros Hp i Hi. unfold taken. specialize (Hp i Hi). dres E; auto. Qed.
  (* `taken p` returns exactly the bytes p consumed: they are in the class p is confined to *)
  Lemma valP_taken (p : parser A) : monoC C p -> valP (fun b => forallb C b = true) (taken p).
  Proof.
    intros Hp i a i' H. unfold taken in H. dresH H E. inversion H; subst. eapply ext_taken, Hp, E.
  Qed.
End Combs1.

(* sequence helpers *)
Section Seqs.
  Context {A B D : Type}.
  Variable C : byte -> bool.
  Variable P : input -> Prop.
  Hypothesis Pc : closed P.

  Lemma monoC_preceded (p : parser A) (q : parser B) : monoC C p -> monoC C q -> monoC C (preceded p q).
  Proof. intros. apply monoC_bind; auto. Qed.
  Lemma progress_preceded (p : parser A) (q : parser B) : progress p -> mono q -> progress (preceded p q).
  Proof. intros. apply progress_bind_l; auto. Qed.
  Lemma safe_preceded (p : parser A) (q : parser B) :
    mono p -> safe_on P p -> safe_on P q -> safe_on P (preceded p q).
  Proof. intros. apply safe_bind; auto. Qed.
  Lemma valP_preceded (V : B -> Prop) (p : parser A) (q : parser B) : valP V q -> valP V (preceded p q).
  Proof. intros. apply valP_bind; auto. Qed.

  Lemma monoC_terminated (p : parser A) (q : parser B) : monoC C p -> monoC C q -> monoC C (terminated p q).
  Proof. intros. apply monoC_bind; auto. intro. apply monoC_bind; auto. intro. apply monoC_ret. Qed.
  Lemma progress_terminated (p : parser A) (q : parser B) : progress p -> mono q -> progress (terminated p q).
  Proof.
    intros. apply progress_bind_l; auto. intro. apply monoC_bind; auto. intro. apply monoC_ret.
  Qed.
  Lemma safe_terminated (p : parser A) (q : parser B) :
    mono p -> mono q -> safe_on P p -> safe_on P q -> safe_on P (terminated p q).
  Proof.
    intros. apply safe_bind; auto. intro. apply safe_bind; auto. intro. apply safe_ret.
  Qed.
  Lemma valP_terminated (V : A -> Prop) (p : parser A) (q : parser B) : valP V p -> valP V (terminated p q).
  Proof.
    intros Hp. eapply valP_bind_val; [exact Hp|]. intros a Ha. apply valP_bind. intro. apply valP_ret, Ha.
  Qed.

  Lemma monoC_delimited (p : parser A) (q : parser B) (r : parser D) :
    monoC C p -> monoC C q -> monoC C r -> monoC C (delimited p q r).
  Proof.
    intros. apply monoC_bind; auto. intro. apply monoC_bind; auto. intro. apply monoC_bind; auto.
    intro. apply monoC_ret.
  Qed.
  Lemma progress_delimited (p : parser A) (q : parser B) (r : parser D) :
    progress p -> mono q -> mono r -> progress (delimited p q r).
  Proof.
    intros. apply progress_bind_l; auto. intro. apply monoC_bind; auto. intro. apply monoC_bind; auto.
    intro. apply monoC_ret.
  Qed.
  Lemma safe_delimited (p : parser A) (q : parser B) (r : parser D) :
    mono p -> mono q -> mono r -> safe_on P p -> safe_on P q -> safe_on P r -> safe_on P (delimited p q r).
  Proof.
    intros. apply safe_bind; auto. intro. apply safe_bind; auto. intro. apply safe_bind; auto.
    intro. apply safe_ret.
  Qed.
  Lemma valP_delimited (V : B -> Prop) (p : parser A) (q : parser B) (r : parser D) :
    valP V q -> valP V (delimited p q r).
  Proof.
    intros Hq. apply valP_bind. intro. eapply valP_bind_val; [exact Hq|]. intros b Hb.
    apply valP_bind. intro. apply valP_ret, Hb.
  Qed.

  Lemma monoC_pair_ (p : parser A) (q : parser B) : monoC C p -> monoC C q -> monoC C (pair_ p q).
  Proof. intros. apply monoC_bind; auto. intro. apply monoC_bind; auto. intro. apply monoC_ret. Qed.
  Lemma progress_pair_ (p : parser A) (q : parser B) : progress p -> mono q -> progress (pair_ p q).
  Proof.
    intros. apply progress_bind_l; auto. intro. apply monoC_bind; auto. intro. apply monoC_ret.
  Qed.
  Lemma safe_pair_ (p : parser A) (q : parser B) :
    mono p -> mono q -> safe_on P p -> safe_on P q -> safe_on P (pair_ p q).
  Proof.
    intros. apply safe_bind; auto. intro. apply safe_bind; auto. intro. apply safe_ret.
  Qed.
  Lemma valP_pair_ (V : A -> Prop) (W : B -> Prop) (p : parser A) (q : parser B) :
    valP V p -> valP W q -> valP (fun x => V (fst x) /\ W (snd x)) (pair_ p q).
  Proof.
    intros Hp Hq. eapply valP_bind_val; [exact Hp|]. intros a Ha.
    eapply valP_bind_val; [exact Hq|]. intros b Hb. apply valP_ret. split; assumption.
  Qed.
End Seqs.

(* from_utf8_unchecked: safe when the bytes handed over are ASCII *)
Lemma ascii_valid s : forallb ascii s = true -> utf8_valid_b s = true.
Proof. exact (utf8_ascii s). Qed.

Section Unchecked.
  Variable C : byte -> bool.
  Variable P : input -> Prop.
  Lemma monoC_unchecked n (p : parser bytes) : monoC C p -> monoC C (unchecked_utf8 n p).
  Proof.
    intros Hp i a i' H. unfold unchecked_utf8 in H. dresH H E. destruct (utf8_valid_b a0); inversion H; subst.
    eapply Hp, E.
  Qed.
  Lemma progress_unchecked n (p : parser bytes) : progress p -> progress (unchecked_utf8 n p).
  Proof.
    intros Hp i a i' H. unfold unchecked_utf8 in H. dresH H E. destruct (utf8_valid_b a0); inversion H; subst.
    eapply Hp, E.
  Qed.
  Lemma valP_unchecked (V : bytes -> Prop) n (p : parser bytes) : valP V p -> valP V (unchecked_utf8 n p).
  Proof.
    intros Hp i a i' H. unfold unchecked_utf8 in H. dresH H E. destruct (utf8_valid_b a0); inversion H; subst.
    eapply Hp, E.
  Qed.
  Lemma safe_unchecked_valid n (p : parser bytes) :
    safe_on P p -> valP (fun b => utf8_valid_b b = true) p -> safe_on P (unchecked_utf8 n p).
  Proof.
    intros Hp Hv i Hi. unfold unchecked_utf8. specialize (Hp i Hi). dres E; auto.
    rewrite (Hv _ _ _ E). exact I.
  Qed.
  Lemma safe_unchecked n (p : parser bytes) :
    safe_on P p -> valP (fun b => forallb ascii b = true) p -> safe_on P (unchecked_utf8 n p).
  Proof.
    intros Hp Hv. apply safe_unchecked_valid; [exact Hp|]. eapply valP_weaken; [|exact Hv]. apply ascii_valid.
  Qed.
  (* the two shapes in which the lexers reach from_utf8_unchecked: a run of bytes of an ASCII class,
     and the text consumed by a parser confined to ASCII *)
  Lemma safe_unchecked_take_while n m k f :
    (forall b, f b = true -> ascii b = true) -> safe_on P (unchecked_utf8 n (take_while_mn m k f)).
  Proof.
    intro H. apply safe_unchecked; [apply safe_take_while|]. eapply valP_weaken; [|apply valP_take_while].
    intros a (Ha & _). rewrite forallb_forall in *. auto.
  Qed.
  Lemma safe_unchecked_taken n {A} (p : parser A) :
    safe_on P p -> monoC ascii p -> safe_on P (unchecked_utf8 n (taken p)).
  Proof. intros Hs Hc. apply safe_unchecked; [apply safe_taken, Hs|apply (valP_taken ascii), Hc]. Qed.
End Unchecked.

(* ---- fuelled loops --------------------------------------------------------------------------------- *)
Lemma repeat0_f_mono C {A} (p : parser A) : monoC C p ->
  forall fuel acc i l i', repeat0_f fuel p acc i = Ok l i' -> ext C i i'.
Proof.
  intros Hp. induction fuel as [|f IH]; intros acc i l i' H; cbn [repeat0_f] in H; [discriminate|].
  dresH H E.
  - destruct (Nat.eqb _ _); [discriminate|]. eapply ext_trans; [eapply Hp, E|eapply IH, H].
  - inversion H; subst. apply ext_refl.
Qed.

Lemma separated_loop_mono C {A Sp} (p : parser A) (sep : parser Sp) : monoC C p -> monoC C sep ->
  forall fuel acc i l i', separated_loop fuel p sep acc i = Ok l i' -> ext C i i'.
Proof.
  intros Hp Hq. induction fuel as [|f IH]; intros acc i l i' H; cbn [separated_loop] in H; [discriminate|].
  destruct (sep i) as [x i1|? ?|? ?|?] eqn:E; try discriminate.
  - destruct (Nat.eqb _ _); [discriminate|].
    destruct (p i1) as [a i2|? ?|? ?|?] eqn:E2; try discriminate.
    + eapply ext_trans; [eapply Hq, E|]. eapply ext_trans; [eapply Hp, E2|eapply IH, H].
    + inversion H; subst. apply ext_refl.
  - inversion H; subst. apply ext_refl.
Qed.

Section Loops.
  Context {A : Type}.
  Variable C : byte -> bool.
  Variable P : input -> Prop.
  Hypothesis Pc : closed P.

  (* termination + no debug assertion: with fuel > bytes left the loop never panics *)
  Lemma repeat0_f_safe (p : parser A) : mono p -> progress p -> safe_on P p ->
    forall fuel acc i, P i -> length (rest i) < fuel -> nopanic (repeat0_f fuel p acc i).
  Proof.
    intros Hm Hg Hs. induction fuel as [|f IH]; intros acc i Hi Hl; [lia|]. cbn [repeat0_f].
    specialize (Hs i Hi). dres E; auto. pose proof (Hg _ _ _ E) as L.
    destruct (Nat.eqb _ _) eqn:Q; [apply Nat.eqb_eq in Q; lia|].
    apply IH; [eapply Pc; eauto; lia | lia].
  Qed.

  Lemma monoC_repeat0 (p : parser A) : monoC C p -> monoC C (repeat0 p).
  Proof. intros Hp i l i' H. eapply (repeat0_f_mono C p Hp), H. Qed.
  Lemma safe_repeat0 (p : parser A) : mono p -> progress p -> safe_on P p -> safe_on P (repeat0 p).
  Proof. intros Hm Hg Hs i Hi. unfold repeat0. apply repeat0_f_safe; auto. Qed.

  Lemma monoC_repeat1 (p : parser A) : monoC C p -> monoC C (repeat1 p).
  Proof.
    intros Hp i l i' H. unfold repeat1 in H. dresH H E.
    eapply ext_trans; [eapply Hp, E|eapply (repeat0_f_mono C p Hp), H].
  Qed.
  Lemma progress_repeat1 (p : parser A) : mono p -> progress p -> progress (repeat1 p).
  Proof.
    intros Hm Hg i l i' H. unfold repeat1 in H. dresH H E. apply Hg in E.
    apply (repeat0_f_mono anyb p Hm), ext_len in H. lia.
  Qed.
  Lemma safe_repeat1 (p : parser A) : mono p -> progress p -> safe_on P p -> safe_on P (repeat1 p).
  Proof.
    intros Hm Hg Hs i Hi. unfold repeat1. pose proof (Hs i Hi) as S0. dres E; auto.
    apply repeat0_f_safe; auto. eapply Pc; eauto. eapply ext_len, Hm, E.
  Qed.

  Context {Sp : Type}.
  (* the separator must make progress (winnow asserts it); the element need not *)
  Lemma separated_loop_safe (p : parser A) (sep : parser Sp) :
    mono p -> mono sep -> progress sep -> safe_on P p -> safe_on P sep ->
    forall fuel acc i, P i -> length (rest i) < fuel -> nopanic (separated_loop fuel p sep acc i).
  Proof.
    intros Hm Hms Hg Hs Hss. induction fuel as [|f IH]; intros acc i Hi Hl; [lia|]. cbn [separated_loop].
    pose proof (Hss i Hi) as S0. destruct (sep i) as [x i1|? ?|? ?|?] eqn:E; auto.
    pose proof (Hg _ _ _ E) as L.
    destruct (Nat.eqb _ _) eqn:Q; [apply Nat.eqb_eq in Q; lia|].
    assert (P1 : P i1) by (eapply Pc; eauto; lia).
    pose proof (Hs i1 P1) as S1. destruct (p i1) as [a i2|? ?|? ?|?] eqn:E2; auto.
    pose proof (ext_len _ _ _ (Hm _ _ _ E2)) as L2.
    apply IH; [eapply Pc; eauto; lia | lia].
  Qed.

  Lemma separated_loop_len (p : parser A) (sep : parser Sp) :
    forall fuel acc i l i', separated_loop fuel p sep acc i = Ok l i' -> length acc <= length l.
  Proof.
    induction fuel as [|f IH]; intros acc i l i' H; cbn [separated_loop] in H; [discriminate|].
    destruct (sep i) as [x i1|? ?|? ?|?] eqn:E; try discriminate.
    - destruct (Nat.eqb _ _); [discriminate|].
      destruct (p i1) as [a i2|? ?|? ?|?] eqn:E2; try discriminate.
      + apply IH in H. cbn in H. lia.
      + inversion H; subst. rewrite rev_length. lia.
    - inversion H; subst. rewrite rev_length. lia.
  Qed.

  (* every element of the result was returned by the element parser (or was in acc), on an input
     satisfying J: a property of inputs that both parsers hand on, e.g. a fixed recursion depth *)
  Lemma separated_loop_all_at (J : input -> Prop) (V : A -> Prop) (p : parser A) (sep : parser Sp) :
    (forall i a i', J i -> p i = Ok a i' -> V a /\ J i') -> (forall i x i', J i -> sep i = Ok x i' -> J i') ->
    forall fuel acc i l i', J i -> separated_loop fuel p sep acc i = Ok l i' -> Forall V acc -> Forall V l.
  Proof.
    intros Hp Hsep. induction fuel as [|f IH]; intros acc i l i' Hi H Ha; cbn [separated_loop] in H; [discriminate|].
    destruct (sep i) as [x i1|? ?|? ?|?] eqn:E; try discriminate.
    - destruct (Nat.eqb _ _); [discriminate|].
      destruct (p i1) as [a i2|? ?|? ?|?] eqn:E2; try discriminate.
      + destruct (Hp _ _ _ (Hsep _ _ _ Hi E) E2) as [Hv Hi2].
        eapply IH; [exact Hi2|exact H|]. constructor; assumption.
      + inversion H; subst. apply Forall_rev, Ha.
    - inversion H; subst. apply Forall_rev, Ha.
  Qed.
  Lemma separated0_all_at (J : input -> Prop) (V : A -> Prop) (p : parser A) (sep : parser Sp) :
    (forall i a i', J i -> p i = Ok a i' -> V a /\ J i') -> (forall i x i', J i -> sep i = Ok x i' -> J i') ->
    forall i l i', J i -> separated0 p sep i = Ok l i' -> Forall V l.
  Proof.
    intros Hp Hsep i l i' Hi H. unfold separated0 in H. destruct (p i) as [a i1|? ?|? ?|?] eqn:E; try discriminate.
    - destruct (Hp _ _ _ Hi E) as [Hv Hi1]. eapply separated_loop_all_at; [exact Hp|exact Hsep|exact Hi1|exact H|].
      constructor; [exact Hv|constructor].
    - inversion H; subst. constructor.
  Qed.

  Lemma monoC_separated0 (p : parser A) (sep : parser Sp) : monoC C p -> monoC C sep -> monoC C (separated0 p sep).
  Proof.
    intros Hp Hq i l i' H. unfold separated0 in H. destruct (p i) as [a i1|? ?|? ?|?] eqn:E; try discriminate.
    - eapply ext_trans; [eapply Hp, E|eapply (separated_loop_mono C p sep Hp Hq), H].
    - inversion H; subst. apply ext_refl.
  Qed.
  Lemma safe_separated0 (p : parser A) (sep : parser Sp) :
    mono p -> mono sep -> progress sep -> safe_on P p -> safe_on P sep -> safe_on P (separated0 p sep).
  Proof.
    intros Hm Hms Hg Hs Hss i Hi. unfold separated0. pose proof (Hs i Hi) as S0.
    destruct (p i) as [a i1|? ?|? ?|?] eqn:E; auto.
    apply separated_loop_safe; auto. eapply Pc; eauto. eapply ext_len, Hm, E.
  Qed.
  Lemma valP_separated0_all (V : A -> Prop) (p : parser A) (sep : parser Sp) :
    valP V p -> valP (Forall V) (separated0 p sep).
  Proof.
    intros Hv i l i' H. apply (separated0_all_at anyi V p sep) with (i := i) (i' := i'); [| |exact I|exact H].
    - intros j a j' _ E. split; [exact (Hv _ _ _ E)|exact I].
    - intros. exact I.
  Qed.

  Lemma monoC_separated1 (p : parser A) (sep : parser Sp) : monoC C p -> monoC C sep -> monoC C (separated1 p sep).
  Proof.
    intros Hp Hq i l i' H. unfold separated1 in H. destruct (p i) as [a i1|? ?|? ?|?] eqn:E; try discriminate.
    eapply ext_trans; [eapply Hp, E|eapply (separated_loop_mono C p sep Hp Hq), H].
  Qed.
  Lemma progress_separated1 (p : parser A) (sep : parser Sp) :
    mono p -> mono sep -> progress p -> progress (separated1 p sep).
  Proof.
    intros Hm Hms Hg i l i' H. unfold separated1 in H. destruct (p i) as [a i1|? ?|? ?|?] eqn:E; try discriminate.
    apply Hg in E. apply (separated_loop_mono anyb p sep Hm Hms), ext_len in H. lia.
  Qed.
  Lemma safe_separated1 (p : parser A) (sep : parser Sp) :
    mono p -> mono sep -> progress sep -> safe_on P p -> safe_on P sep -> safe_on P (separated1 p sep).
  Proof.
    intros Hm Hms Hg Hs Hss i Hi. unfold separated1. pose proof (Hs i Hi) as S0.
    destruct (p i) as [a i1|? ?|? ?|?] eqn:E; auto.
    apply separated_loop_safe; auto. eapply Pc; eauto. eapply ext_len, Hm, E.
  Qed.
  (* separated(1.., ..) returns a non-empty list: what `expect("grammar ensures at least 1")` relies on *)
  Lemma valP_separated1_nonempty (p : parser A) (sep : parser Sp) : valP (fun l => l <> []) (separated1 p sep).
  Proof.
    intros i l i' H. unfold separated1 in H. destruct (p i) as [a i1|? ?|? ?|?] eqn:E; try discriminate.
    apply separated_loop_len in H. cbn in H. destruct l; [cbn in H; lia|discriminate].
  Qed.
End Loops.

(* parse_all *)
Lemma parse_all_nopanic {A} (p : parser A) s :
  nopanic (p (new_input s)) -> forall st, parse_all p s <> Panicked st.
Proof.
  intros H st. unfold parse_all, bind. destruct (p (new_input s)) as [a i|? ?|? ?|?]; try discriminate.
  - unfold eof. destruct (rest i); discriminate.
  - destruct H.
Qed.

(* ---- hint database ----------------------------------------------------------------------------------- *)
Create HintDb np discriminated.
#[export] Hint Resolve closed_anyi closed_shorter : np.
#[export] Hint Resolve monoC_ret safe_ret monoC_fail progress_fail safe_fail monoC_cut_custom safe_cut_custom
  monoC_empty safe_empty mono_any progress_any safe_any mono_one_of progress_one_of safe_one_of
  mono_none_of progress_none_of safe_none_of mono_byte_ progress_byte_ safe_byte_
  mono_lit safe_lit mono_take_while safe_take_while mono_take_while0 mono_take_while1
  progress_take_while1 safe_take_while0 safe_take_while1 mono_take_n safe_take_n mono_rest_ safe_rest_
  monoC_eof safe_eof : np.
#[export] Hint Resolve monoC_bind safe_bind monoC_pmap progress_pmap safe_pmap monoC_pvalue progress_pvalue safe_pvalue
  monoC_verify_map progress_verify_map safe_verify_map monoC_try_map progress_try_map
  monoC_and_then progress_and_then monoC_pvoid progress_pvoid safe_pvoid monoC_peek safe_peek
  monoC_opt safe_opt monoC_cut_err progress_cut_err safe_cut_err monoC_context progress_context safe_context
  monoC_alt progress_alt safe_alt monoC_verify progress_verify safe_verify
  monoC_span_ progress_span_ safe_span_ monoC_with_span progress_with_span safe_with_span
  monoC_taken progress_taken safe_taken
  monoC_preceded progress_preceded safe_preceded monoC_terminated progress_terminated safe_terminated
  monoC_delimited progress_delimited safe_delimited monoC_pair_ progress_pair_ safe_pair_
  monoC_unchecked progress_unchecked safe_unchecked_take_while safe_unchecked_taken
  monoC_repeat0 safe_repeat0 monoC_repeat1 progress_repeat1 safe_repeat1
  monoC_separated0 safe_separated0 monoC_separated1 progress_separated1 safe_separated1 : np.
#[export] Hint Resolve progress_bind_l | 2 : np.
#[export] Hint Resolve progress_bind_r | 3 : np.
#[export] Hint Extern 1 (monoC _ (if ?c then _ else _)) => destruct c : np.
#[export] Hint Extern 1 (progress (if ?c then _ else _)) => destruct c : np.
#[export] Hint Extern 1 (safe_on _ (if ?c then _ else _)) => destruct c : np.
#[export] Hint Extern 1 (monoC _ (match ?x with _ => _ end)) => destruct x : np.
#[export] Hint Extern 1 (progress (match ?x with _ => _ end)) => destruct x : np.
#[export] Hint Extern 1 (safe_on _ (match ?x with _ => _ end)) => destruct x : np.
#[export] Hint Extern 5 (_ <> []) => discriminate : np.
#[export] Hint Extern 5 (_ <= _) => lia : np.

Ltac np := auto 40 with np.
