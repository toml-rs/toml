(* Proofs/PrintBackDVals.v — C03, class (d): the key/value lines of a section, through the tables that
   dotted keys make (Model/Encode.v table_values), as a structural function of the tree (`tv`). *)
From TV Require Import Base.Prelude Gen.Consts.
From TV Require Import Model.Tree Model.Encode.
From TV Require Import Proofs.SpansDefs Proofs.PrintBackBase Proofs.PrintBackValue Proofs.PrintBackSort Proofs.PrintBackEnts.
From TV Require Import Proofs.ModelFacts.
Require Import Lia ZifyBool ZifyN ZifyNat Sorting.Sorted Sorting.Permutation.
From TV Require Import Base.ListFacts.

Fixpoint tv (t : tbl) (p : list key) {struct t} : list (list key * value) :=
  match t with
  | Tbl items _ _ _ _ _ =>
    (fix go (l : list (key * item)) : list (list key * value) :=
       match l with [] => [] | (k, it) :: tl => tvit it (p ++ [k]) ++ go tl end) items
  end
with tvit (it : item) (p : list key) {struct it} : list (list key * value) :=
  match it with
  | IValue v => [(p, v)]
  | ITable sub => if t_dotted sub then tv sub p else []
  | _ => []
  end.
Definition tvi (items : list (key * item)) (p : list key) : list (list key * value) :=
  flat_map (fun kv => tvit (snd kv) (p ++ [fst kv])) items.

Lemma tv_eq t p : tv t p = tvi (t_items t) p.
Proof.
  destruct t as [items d im dt pos sp]. cbn [tv t_items]. unfold tvi.
  induction items as [|[k it] tl IH]; [reflexivity|]. cbn [flat_map fst snd]. rewrite <- IH. reflexivity.
Qed.
Lemma tvi_app a b p : tvi (a ++ b) p = tvi a p ++ tvi b p.
Proof. apply flat_map_app. Qed.

(* ---- Table::append_values with enough fuel ------------------------------------------------------------------- *)
Definition uvals (l : list (list key * value)) : Prop := Forall (fun kv : list key * value => undot (snd kv) = true) l.

Lemma table_values_tv : forall f t p, tbl_size t < f -> uvals (tv t p) -> table_values f p (t_items t) = tv t p.
Proof.
  induction f as [|f IH]; intros t p Hf Hu; [lia|]. rewrite tv_eq in *. cbn [table_values]. unfold tvi in *.
  apply flat_map_ext_in. intros [k it] Hin. cbn [fst snd].
  assert (Hsz : item_size it <= f).
  { pose proof (kv_size_in (t_items t) (k, it) Hin) as H. cbn [snd] in H. destruct t as [items d im dt pos sp]. cbn [tbl_size t_items] in *. lia. }
  assert (Hu' : uvals (tvit it (p ++ [k]))).
  { unfold uvals in *. rewrite Forall_forall in *. intros x Hx. apply Hu. apply in_flat_map. exists (k, it). split; [exact Hin|exact Hx]. }
  destruct it as [|v|sub|ts sp]; try reflexivity.
  - cbn [tvit] in *. inversion Hu' as [|? ? Hv _]; subst. cbn [snd] in Hv. destruct v as [x r d|vs tr c d sp|its pre im dt d sp]; try reflexivity.
    cbn [undot] in Hv. destruct dt; [discriminate|reflexivity].
  - cbn [tvit] in *. destruct sub as [sitems sd sim sdt spos ssp] eqn:Es. cbn [t_dotted] in *. destruct sdt; [|reflexivity].
    rewrite <- Es in *. assert (E : sitems = t_items sub) by (rewrite Es; reflexivity). rewrite E. apply IH; [cbn [item_size] in Hsz; lia|exact Hu'].
Qed.

(* ---- substitution of spans ------------------------------------------------------------------------------------ *)
Definition tline (s : bytes) (kv : list key * value) : list key * value := (map (tkey s) (fst kv), tvalue s (snd kv)).

Lemma tv_ttbl s :
  (forall v : value, True)
  /\ (forall it, forall p, tvit (titem s it) (map (tkey s) p) = map (tline s) (tvit it p))
  /\ (forall t, forall p, tv (ttbl s t) (map (tkey s) p) = map (tline s) (tv t p)).
Proof.
  apply tree_ind3; try (intros; exact I).
  - intros p. reflexivity.
  - intros v _ p. reflexivity.
  - intros t IH p. change (titem s (ITable t)) with (ITable (ttbl s t)). cbn [tvit]. rewrite (ttbl_fields s t) at 1. cbn [t_dotted].
    destruct (t_dotted t); [apply IH|reflexivity].
  - intros ts sp IH p. reflexivity.
  - intros items d im dt pos sp IH p. rewrite !tv_eq, ttbl_fields. cbn [t_items]. unfold tvi.
    rewrite !flat_map_concat_map, concat_map, !map_map. f_equal.
    apply map_ext_Forall. eapply Forall_impl; [|exact IH]. intros [k it] Hk. unfold tkv. cbn [fst snd] in *. rewrite <- Hk, map_app. reflexivity.
Qed.

Lemma tv_ttbl_root s t : tv (ttbl s t) [] = map (tline s) (tv t []).
Proof. apply (proj2 (proj2 (tv_ttbl s)) t []). Qed.

(* ---- trees whose values satisfy P and are not inline tables implied by dotted keys (tables made by dotted keys allowed) ---- *)
Section Shape.
Variable P : value -> bool.
Fixpoint dsh_tbl (t : tbl) : bool :=
  match t with
  | Tbl items _ _ _ _ _ =>
    (fix go (l : list (key * item)) : bool := match l with [] => true | (_, it) :: tl => dsh_item it && go tl end) items
  end
with dsh_item (it : item) : bool :=
  match it with
  | INone => false
  | IValue v => P v && undot v
  | ITable sub => dsh_tbl sub
  | IAot ts _ => (fix goa (l : list tbl) : bool := match l with [] => true | sub :: tl => negb (t_dotted sub) && dsh_tbl sub && goa tl end) ts
  end.

Lemma dsh_tbl_eq t : dsh_tbl t = forallb (fun kv => dsh_item (snd kv)) (t_items t).
Proof.
  destruct t as [items d im dt pos sp]. cbn [dsh_tbl t_items].
  induction items as [|[k it] tl IH]; [reflexivity|]. cbn [forallb snd]. rewrite <- IH. reflexivity.
Qed.
Lemma dsh_item_aot ts sp : dsh_item (IAot ts sp) = forallb (fun sub => negb (t_dotted sub) && dsh_tbl sub) ts.
Proof. cbn [dsh_item]. induction ts as [|t tl IH]; [reflexivity|]. cbn [forallb]. rewrite <- IH. reflexivity. Qed.

Definition pvals (l : list (list key * value)) : Prop := Forall (fun kv : list key * value => P (snd kv) = true /\ undot (snd kv) = true) l.

Lemma dsh_tv :
  (forall v : value, True)
  /\ (forall it, forall p, dsh_item it = true -> pvals (tvit it p))
  /\ (forall t, forall p, dsh_tbl t = true -> pvals (tv t p)).
Proof.
  apply tree_ind3; try (intros; exact I).
  - intros; constructor.
  - intros v _ p Hv. cbn [dsh_item] in Hv. apply andb_true_iff in Hv. constructor; [exact Hv|constructor].
  - intros t IH p Hs. cbn [tvit]. destruct (t_dotted t); [apply IH, Hs|constructor].
  - intros; constructor.
  - intros items d im dt pos sp IH p Hs. rewrite tv_eq. rewrite dsh_tbl_eq in Hs. cbn [t_items] in *. rewrite forallb_forall in Hs.
    rewrite Forall_forall in IH. apply Forall_flat_map, Forall_forall. intros [k it] Hk. apply (IH _ Hk (p ++ [k]) (Hs _ Hk)).
Qed.

Definition edsh (e : entry) : Prop := dsh_tbl (fst (fst e)) = true.

Lemma ents_dsh :
  (forall v : value, True)
  /\ (forall it, forall p, dsh_item it = true -> p <> [] -> Forall (fun e => edsh e /\ epath e <> []) (ients it p))
  /\ (forall t, forall p a, dsh_tbl t = true -> p <> [] -> Forall (fun e => edsh e /\ epath e <> []) (ents t p a)).
Proof.
  apply tree_ind3; try (intros; exact I).
  - intros; constructor.
  - intros; constructor.
  - intros t IH p Hs Hp. rewrite ients_table. apply IH; assumption.
  - intros ts sp IH p Hs Hp. rewrite ients_aot. rewrite dsh_item_aot in Hs. rewrite forallb_forall in Hs.
    rewrite Forall_forall in IH. apply Forall_flat_map, Forall_forall. intros t Ht.
    pose proof (Hs t Ht) as Hst. apply andb_true_iff in Hst as [_ Hst]. apply (IH t Ht p true Hst Hp).
  - intros items d im dt pos sp IH p a Hs Hp. rewrite ents_eq. pose proof Hs as Hs0. rewrite dsh_tbl_eq in Hs. cbn [t_dotted t_items] in *.
    apply Forall_app. split.
    + destruct dt; constructor; [|constructor]. split; [exact Hs0|exact Hp].
    + rewrite forallb_forall in Hs. rewrite Forall_forall in IH. apply Forall_flat_map, Forall_forall. intros [k it] Hk.
      apply (IH (k, it) Hk (p ++ [k]) (Hs _ Hk)). destruct p; discriminate.
Qed.

Lemma sub_ents_dsh t : dsh_tbl t = true -> Forall (fun e => edsh e /\ epath e <> []) (sub_ents (t_items t) []).
Proof.
  intro Hs. rewrite dsh_tbl_eq in Hs. rewrite forallb_forall in Hs.
  apply Forall_flat_map, Forall_forall. intros [k it] Hk. apply (proj1 (proj2 ents_dsh) it [k] (Hs _ Hk)). discriminate.
Qed.
End Shape.

(* a span or an empty text prints the same whatever the default *)
Lemma raw_encode_traw s r x y : raw_encode (traw s r) x = raw_encode (traw s r) y.
Proof. destruct r as [|u|u v]; cbn [traw]; try reflexivity. unfold raw_of_bytes. destruct (slice s u v); reflexivity. Qed.

(* ---- what one table prints ---------------------------------------------------------------------------------- *)
Definition dline (s : bytes) (kv : list key * value) : bytes :=
  encode_key_path (map (tkey s) (fst kv)) DEFAULT_KEY_DECOR ++ [x3d]
  ++ encode_value (S (value_size (tvalue s (snd kv)))) (tvalue s (snd kv)) DEFAULT_VALUE_DECOR ++ [x0a].
Definition dtext (s : bytes) (t : tbl) : bytes := flat_map (dline s) (tv t []).
Definition no_tv (t : tbl) : bool := match tv t [] with [] => true | _ => false end.
Definition dvis (e : entry) : bool := let '(t, p, a) := e in a || negb (t_implicit t && no_tv t).
Definition detxt (s : bytes) (e : entry) : bytes :=
  let '(t, p, a) := e in
  match p with
  | [] => dtext s t
  | _ => raw_encode (traw s (match d_prefix (t_decor t) with Some r => r | None => REmpty end)) []
         ++ hdr_text s p a
         ++ raw_encode (traw s (match d_suffix (t_decor t) with Some r => r | None => REmpty end)) [] ++ [x0a]
         ++ dtext s t
  end.

Lemma children_dsh P s t : dsh_tbl P t = true ->
  table_values (S (tbl_size (ttbl s t))) [] (t_items (ttbl s t)) = map (tline s) (tv t []).
Proof.
  intro Hs. rewrite <- tv_ttbl_root. apply table_values_tv; [apply Nat.lt_succ_diag_r|]. rewrite tv_ttbl_root.
  pose proof (proj2 (proj2 (dsh_tv P)) t [] Hs) as Hp. unfold uvals, pvals in *. rewrite Forall_forall in *. intros x Hx.
  apply in_map_iff in Hx as (y & <- & Hy). unfold tline. cbn [snd]. rewrite undot_tvalue. apply (Hp y Hy).
Qed.

Lemma lines_dtext s (l : list (list key * value)) :
  flat_map (fun '(kp, v) => encode_key_path kp DEFAULT_KEY_DECOR ++ [x3d] ++ encode_value (S (value_size v)) v DEFAULT_VALUE_DECOR ++ [x0a])
           (map (tline s) l)
  = flat_map (dline s) l.
Proof.
  induction l as [|[k v] tl IH]; [reflexivity|]. cbn [map flat_map]. rewrite IH. unfold dline, tline. cbn [fst snd].
  repeat first [rewrite <- app_assoc | progress cbn [app]]. reflexivity.
Qed.

Lemma dvisit_invisible P s t p a b : dsh_tbl P t = true -> p <> [] -> dvis (t, p, a) = false ->
  visit_table (ttbl s t) (map (tkey s) p) a b = ([], b).
Proof.
  intros Hs Hp Hv. unfold visit_table. rewrite (children_dsh P s t Hs). cbn [dvis] in Hv.
  apply orb_false_iff in Hv as [-> Hv]. apply negb_false_iff, andb_true_iff in Hv as [Him Hn].
  unfold no_tv in Hn. destruct (tv t []) as [|x l] eqn:Ev; [|discriminate]. cbn [map].
  rewrite ttbl_fields. cbn [t_implicit]. rewrite Him. cbn [andb negb].
  destruct (map (tkey s) p) eqn:Ep; [destruct p; [congruence|discriminate]|]. reflexivity.
Qed.

Lemma dvisit_visible Pv s t p a b : dsh_tbl Pv t = true -> (p = [] \/ (dvis (t, p, a) = true /\ decor_some (t_decor t))) ->
  fst (visit_table (ttbl s t) (map (tkey s) p) a b) = detxt s (t, p, a).
Proof.
  intros Hs Hp. unfold visit_table. rewrite (children_dsh Pv s t Hs). rewrite lines_dtext. fold (dtext s t).
  destruct Hp as [-> | [Hv [Hd1 Hd2]]].
  - cbn [map detxt]. destruct (match map _ (tv t []) with [] => true | _ => false end); reflexivity.
  - destruct p as [|k0 p0]; [cbn [map detxt]; destruct (match map _ (tv t []) with [] => true | _ => false end); reflexivity|].
    cbn [dvis] in Hv. set (P := map (tkey s) (k0 :: p0)). assert (EP : exists q0 ql, P = q0 :: ql) by (eexists _, _; reflexivity).
    destruct EP as (q0 & ql & EP). cbn [detxt]. fold P. unfold hdr_text. fold P.
    assert (Hh : forall o c, (let default := if b then ([], snd DEFAULT_TABLE_DECOR) else DEFAULT_TABLE_DECOR in
                     decor_prefix (t_decor (ttbl s t)) (fst default) ++ encode_key_comments P ++ o
                     ++ encode_header_key_path P DEFAULT_KEY_PATH_DECOR ++ c
                     ++ decor_suffix (t_decor (ttbl s t)) (snd default) ++ [x0a])
                    = raw_encode (traw s (match d_prefix (t_decor t) with Some r => r | None => REmpty end)) []
                      ++ (encode_key_comments P ++ o ++ encode_header_key_path P DEFAULT_KEY_PATH_DECOR ++ c)
                      ++ raw_encode (traw s (match d_suffix (t_decor t) with Some r => r | None => REmpty end)) [] ++ [x0a]).
    { intros o c. cbv zeta. rewrite ttbl_fields. cbn [t_decor]. unfold decor_prefix, decor_suffix, tdecor. cbn [d_prefix d_suffix].
      destruct (d_prefix (t_decor t)) as [r1|]; [|congruence]. destruct (d_suffix (t_decor t)) as [r2|]; [|congruence]. cbn [toraw].
      rewrite (raw_encode_traw s r1 _ []), (raw_encode_traw s r2 _ []). rewrite <- !app_assoc. reflexivity. }
    rewrite EP. rewrite <- EP.
    destruct a.
    + rewrite EP. cbn [fst]. rewrite <- EP. cbv zeta in Hh. rewrite (Hh [x5b; x5b] [x5d; x5d]). unfold hdr_open, hdr_close. rewrite <- !app_assoc. reflexivity.
    + cbn [orb] in Hv. rewrite ttbl_fields. cbn [t_implicit].
      assert (Hvis : negb (t_implicit t && match map (tline s) (tv t []) with [] => true | _ => false end) = true).
      { unfold no_tv in Hv. destruct (tv t []); exact Hv. }
      rewrite Hvis. rewrite EP. cbn [fst]. rewrite <- EP. rewrite <- ttbl_fields. cbv zeta in Hh. rewrite (Hh [x5b] [x5d]).
      unfold hdr_open, hdr_close. rewrite <- !app_assoc. reflexivity.
Qed.

(* the shape for a weaker condition on the values *)
Lemma dsh_mono (P Q : value -> bool) : (forall v, P v = true -> Q v = true) ->
  (forall v : value, True)
  /\ (forall it, dsh_item P it = true -> dsh_item Q it = true)
  /\ (forall t, dsh_tbl P t = true -> dsh_tbl Q t = true).
Proof.
  intro HPQ. apply tree_ind3; try (intros; exact I); try (intros; assumption).
  - intros v _ H. cbn [dsh_item] in *. apply andb_true_iff in H as [H1 H2]. rewrite (HPQ v H1), H2. reflexivity.
  - intros t IH H. exact (IH H).
  - intros ts sp IH H. rewrite dsh_item_aot in *. rewrite forallb_forall in *. intros t Ht. specialize (H t Ht). apply andb_true_iff in H as [H1 H2].
    rewrite H1. rewrite Forall_forall in IH. rewrite (IH t Ht H2). reflexivity.
  - intros items d im dt pos sp IH H. rewrite dsh_tbl_eq in *. cbn [t_items] in *. rewrite forallb_forall in *. intros kv Hkv.
    rewrite Forall_forall in IH. apply (IH kv Hkv), H, Hkv.
Qed.
