(* Proofs/SpansDespanTotal.v — C14 / C04: `despan` (ImDocument::into_mut) of a parsed document never fails:
   every span lies in the source (Proofs/SpansDoc.v) on character boundaries (Proofs/SpansBdDoc.v), so every
   `str::get(range)` of RawString::despan succeeds — the model's panic site P_span_slice is unreachable after a
   successful parse of well-formed UTF-8. *)
From TV Require Import Base.Prelude Base.Utf8.
From TV Require Import Model.Tree Model.Document Model.Encode.
From TV Require Import Proofs.SpansDefs Proofs.SpansBase Proofs.SpansDoc Proofs.SpansDespan Proofs.SpansBd Proofs.SpansBdDoc.
Require Import Lia ZifyBool ZifyN ZifyNat.

Section T.
  Variable s : bytes.
  Let HI := N.of_nat (length s).
  Let G := bd s.

  Definition good_sp (sp : N * N) : Prop := sp_in 0 HI sp = true /\ sp_g G sp = true.

  Lemma raw_despan_total r : raw_in 0 HI r = true -> raw_g G r = true -> exists r', raw_despan s r = Some r'.
  Proof.
    destruct r as [|t|a b]; cbn [raw_despan]; eauto. unfold raw_in, raw_g; cbn [raw_span osp_in osp_g]. intros H1 H2.
    unfold str_get. unfold sp_in in H1; cbn [fst snd] in H1. unfold sp_g, G, bd in H2; cbn [fst snd] in H2.
    apply andb_true_iff in H2 as [B1 B2]. rewrite B1, B2. subst HI.
    replace ((a <=? b)%N && (b <=? N.of_nat (length s))%N) with true by lia. cbn [andb]. eauto.
  Qed.
  Lemma oraw_despan_total o : oraw_in 0 HI o = true -> oraw_g G o = true -> exists o', oraw_despan s o = Some o'.
  Proof.
    destruct o as [r|]; cbn [oraw_despan oraw_in oraw_g]; [|eauto]. intros H1 H2.
    destruct (raw_despan_total r H1 H2) as (r' & ->). eauto.
  Qed.
  Lemma decor_despan_total d : decor_in 0 HI d = true -> decor_g G d = true -> exists d', decor_despan s d = Some d'.
  Proof.
    unfold decor_in, decor_g, decor_despan. intros H1 H2. apply andb_true_iff in H1 as [A1 A2]. apply andb_true_iff in H2 as [B1 B2].
    destruct (oraw_despan_total _ A1 B1) as (p & ->). destruct (oraw_despan_total _ A2 B2) as (q & ->). eauto.
  Qed.
  Lemma key_despan_total k : key_in 0 HI k = true -> key_g G k = true -> exists k', key_despan s k = Some k'.
  Proof.
    unfold key_in, key_g, key_despan. intros H1 H2. apply andb3 in H1 as (A1 & A2 & A3). apply andb3 in H2 as (B1 & B2 & B3).
    destruct (decor_despan_total _ A2 B2) as (l & ->). destruct (decor_despan_total _ A3 B3) as (d & ->).
    destruct (oraw_despan_total _ A1 B1) as (r & ->). eauto.
  Qed.

  Lemma omap_list_total {A B} (f : A -> option B) (P : A -> Prop) : forall l,
    Forall (fun a => P a -> exists b, f a = Some b) l -> Forall P l -> exists l', omap_list f l = Some l'.
  Proof.
    induction l as [|a l IH]; intros Hf Hp; [exists []; reflexivity|].
    inversion Hf as [|? ? Ha Hl]; subst. inversion Hp as [|? ? Pa Pl]; subst.
    destruct (Ha Pa) as (b & Eb). destruct (IH Hl Pl) as (l' & El). exists (b :: l').
    change (omap_list f (a :: l)) with (match f a, omap_list f l with Some b0, Some r => Some (b0 :: r) | _, _ => None end).
    rewrite Eb, El. reflexivity.
  Qed.

  Definition vgoodP (v : value) : Prop := value_in 0 HI v = true /\ value_g G v = true.
  Definition igoodP (it : item) : Prop := item_in 0 HI it = true /\ item_g G it = true.
  Definition tgoodP (t : tbl) : Prop := tbl_in 0 HI t = true /\ tbl_g G t = true.

  Lemma kvs_despan_total (items : list (key * item)) :
    Forall (fun kv => igoodP (snd kv) -> exists i', item_despan s (snd kv) = Some i') items ->
    forallb (fun kv => key_in 0 HI (fst kv) && item_in 0 HI (snd kv)) items = true ->
    forallb (fun kv => key_g G (fst kv) && item_g G (snd kv)) items = true ->
    exists items', omap_list (kv_despan s) items = Some items'.
  Proof.
    intros IH H1 H2. apply (omap_list_total (kv_despan s)
      (fun kv => (key_in 0 HI (fst kv) = true /\ item_in 0 HI (snd kv) = true) /\ (key_g G (fst kv) = true /\ item_g G (snd kv) = true))).
    - eapply Forall_impl; [|exact IH]. intros [k0 i0] Hi [[A1 A2] [B1 B2]]. cbn [fst snd kv_despan] in *.
      destruct (key_despan_total _ A1 B1) as (k' & ->). destruct (Hi (conj A2 B2)) as (i' & ->). eauto.
    - apply Forall_forall. intros kv Hin. rewrite forallb_forall in H1, H2. specialize (H1 _ Hin). specialize (H2 _ Hin).
      apply andb_true_iff in H1. apply andb_true_iff in H2. tauto.
  Qed.

  Lemma tree_despan_total :
    (forall v, vgoodP v -> exists v', value_despan s v = Some v')
    /\ (forall it, igoodP it -> exists it', item_despan s it = Some it')
    /\ (forall t, tgoodP t -> exists t', tbl_despan s t = Some t').
  Proof.
    apply tree_ind3.
    - intros x r d [H1 H2]. rewrite value_in_scalar in H1. rewrite value_g_scalar in H2.
      apply andb_true_iff in H1 as [A1 A2]. apply andb_true_iff in H2 as [B1 B2]. cbn [value_despan].
      destruct (oraw_despan_total _ A1 B1) as (r' & ->). destruct (decor_despan_total _ A2 B2) as (d' & ->). eauto.
    - intros vals tr c d sp IH [H1 H2]. rewrite value_in_array in H1. rewrite value_g_array in H2.
      apply andb4 in H1 as (A1 & A2 & A3 & _). apply andb4 in H2 as (B1 & B2 & B3 & _). rewrite value_despan_array.
      destruct (omap_list_total (item_despan s) igoodP vals IH) as (vals' & ->).
      { apply Forall_forall. intros it Hin. rewrite forallb_forall in A1, B1. split; auto. }
      destruct (raw_despan_total _ A2 B2) as (tr' & ->). destruct (decor_despan_total _ A3 B3) as (d' & ->). eauto.
    - intros items pre im dt d sp IH [H1 H2]. rewrite inline_in_items in H1. rewrite value_g_inline in H2.
      apply andb4 in H1 as (A1 & A2 & A3 & _). apply andb4 in H2 as (B1 & B2 & B3 & _). rewrite value_despan_inline.
      destruct (kvs_despan_total items IH A1 B1) as (items' & ->).
      destruct (raw_despan_total _ A2 B2) as (pre' & ->). destruct (decor_despan_total _ A3 B3) as (d' & ->). eauto.
    - intros _. exists INone. reflexivity.
    - intros v IH [H1 H2]. destruct (IH (conj H1 H2)) as (v' & E).
      change (item_despan s (IValue v)) with (optmap IValue (value_despan s v)). rewrite E. cbn. eauto.
    - intros t IH [H1 H2]. destruct (IH (conj H1 H2)) as (t' & E).
      change (item_despan s (ITable t)) with (optmap ITable (tbl_despan s t)). rewrite E. cbn. eauto.
    - intros ts sp IH [H1 H2]. rewrite item_in_aot in H1. rewrite item_g_aot in H2.
      apply andb_true_iff in H1 as [A1 _]. apply andb_true_iff in H2 as [B1 _]. rewrite item_despan_aot.
      destruct (omap_list_total (tbl_despan s) tgoodP ts IH) as (ts' & ->); [|cbn; eauto].
      apply Forall_forall. intros t Hin. rewrite forallb_forall in A1, B1. split; auto.
    - intros items d im dt p sp IH [H1 H2]. rewrite tbl_in_items in H1. rewrite tbl_g_items in H2.
      cbn [t_items t_decor t_span] in *. apply andb3 in H1 as (A1 & A2 & _). apply andb3 in H2 as (B1 & B2 & _).
      rewrite tbl_despan_eq. destruct (kvs_despan_total items IH A1 B1) as (items' & ->).
      destruct (decor_despan_total _ A2 B2) as (d' & ->). eauto.
  Qed.
End T.

Theorem despan_total s d :
  utf8_valid_b s = true -> parse_document s = POk d ->
  exists r t, tbl_despan s (doc_root d) = Some r /\ raw_despan s (doc_trailing d) = Some t.
Proof.
  intros V H. pose proof (parse_document_in s d H) as Hin. destruct (parse_document_g s d V H) as [G1 G2].
  unfold doc_in in Hin. apply andb_true_iff in Hin as [I1 I2].
  destruct (proj2 (proj2 (tree_despan_total s)) (doc_root d) (conj I1 G1)) as (r & Er).
  destruct (raw_despan_total s _ I2 G2) as (t & Et). eauto.
Qed.
