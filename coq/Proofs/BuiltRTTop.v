(* Proofs/BuiltRTTop.v — C06: the value-level theorem (Display for Value / Array / InlineTable, then
   Value::from_str), with the leaves discharged, and the closure of the constructors (`eval_value`)
   inside `BuiltValue`. *)
From TV Require Import Base.Prelude Base.Utf8 Base.Winnow Gen.Consts.
From TV Require Import Model.Trivia Model.Strings Model.Datetime Model.DatetimeStd Spec.DatetimeSpec Model.Numbers Model.Tree Model.Parse Model.Document.
From TV Require Import Model.Write Model.Encode Model.Build.
From TV Require Import Proofs.Eoi Proofs.StringsRTDefs Proofs.StringsRTBase Proofs.StringsRTTop.
From TV Require Import Proofs.BuiltRTBase Proofs.BuiltRTEncode Proofs.BuiltRTParse Proofs.BuiltRTKey Proofs.BuiltRTValue Proofs.BuiltRTLeaf Proofs.BuiltRTDatetime Proofs.BuiltRTWF.
Require Import Lia ZifyBool ZifyN ZifyNat.

(* ---- the admissible leaves -------------------------------------------------------------------------------- *)
Definition scalar_ok (s : scalar) : Prop :=
  match s with
  | SString x => utf8_valid_b x = true          (* a Rust &str / String *)
  | SInt z => in_i64 z = true                   (* an i64 *)
  | SFloat f => float_leaf f                    (* nan / inf of either sign, or the decimal m * 10^e (e < 0) its text denotes, below the overflow threshold *)
  | SBool _ => True
  | SDatetime d => in_range d = true            (* one of the four TOML shapes with RFC 3339 field ranges *)
  end.

Lemma scalar_leaf s : scalar_ok s -> leaf_ok float_text s.
Proof.
  destruct s as [x|z|f|b|d]; cbn [scalar_ok]; intro H.
  - apply leaf_string, H.
  - apply leaf_int, H.
  - apply leaf_float, H.
  - apply leaf_bool.
  - apply leaf_datetime, H.
Qed.

Lemma BuiltValue_mono (PS PS' : scalar -> Prop) (PK PK' : bytes -> Prop) :
  (forall s, PS s -> PS' s) -> (forall k, PK k -> PK' k) ->
  forall v, BuiltValue PS PK v -> BuiltValue PS' PK' v.
Proof.
  intros HS HK. apply BuiltValue_sind.
  - intros s d Hs Hd. constructor; auto.
  - intros es d Hd _ IH. constructor; assumption.
  - intros es d Hd _ IH. constructor; assumption.
  - intros l d Hd Hnd Hk _ IH. constructor; try assumption.
    rewrite Forall_forall in *. auto.
Qed.

(* ---- the text is longer than the value is deep (fuel of `value`) ---------------------------------------------- *)
Lemma wrap_len d dflt t : length t <= length (wrap d dflt t).
Proof. unfold wrap. rewrite !app_length. lia. Qed.

Lemma arr_txt_len l x : In x l -> length (snd x) <= length (arr_txt l).
Proof.
  destruct l as [|[d0 t0] tl]; [contradiction|]. cbn [arr_txt]. rewrite app_length. intros [<- | Hin].
  - cbn [snd]. pose proof (wrap_len d0 DEFAULT_LEADING_VALUE_DECOR t0). lia.
  - assert (G : length (snd x) <= length (concat (map (fun dt => x2c :: wrap (fst dt) DEFAULT_VALUE_DECOR (snd dt)) tl))).
    { clear - Hin. induction tl as [|y tl IH]; [contradiction|]. cbn [map concat]. rewrite app_length. cbn [length].
      destruct Hin as [E | Hin].
      { subst. match goal with |- context [wrap (fst ?z) _ _] => pose proof (wrap_len (fst z) DEFAULT_VALUE_DECOR (snd z)) end. unfold bytes in *. lia. }
      specialize (IH Hin). lia. }
    lia.
Qed.

Lemma inl_txt_len l x : In x l -> length (snd (snd x)) <= length (inl_txt l).
Proof.
  induction l as [|[k [d t]] l IH]; [contradiction|]. intro Hin. destruct l as [|y l'].
  - destruct Hin as [<- | []]. rewrite inl_txt_one. cbn [snd]. rewrite app_length. cbn [length].
    pose proof (wrap_len d DEFAULT_TRAILING_VALUE_DECOR t). (unfold bytes in *; lia).
  - rewrite inl_txt_cons. rewrite app_length. cbn [length]. rewrite app_length. cbn [length].
    destruct Hin as [<- | Hin].
    + cbn [snd]. pose proof (wrap_len d DEFAULT_VALUE_DECOR t). (unfold bytes in *; lia).
    + specialize (IH Hin). (unfold bytes in *; lia).
Qed.


Section Len.
  Variable ftext : fval -> bytes.
  Variable PS : scalar -> Prop.
  Variable PK : bytes -> Prop.

  Lemma elems_depth_le dec es : Forall (fun e => value_depth e <= length (txt ftext e)) es ->
    forall e, In e es -> value_depth e <= length (arr_txt (map (fun e => (dec e, txt ftext e)) es)).
  Proof.
    intros IH e He. rewrite Forall_forall in IH. specialize (IH e He).
    pose proof (arr_txt_len _ (dec e, txt ftext e) (in_map (fun e => (dec e, txt ftext e)) _ _ He)) as H.
    cbn [snd] in H. unfold bytes in *. lia.
  Qed.

  Lemma depth_le_txt : forall v, BuiltValue PS PK v -> value_depth v <= length (txt ftext v).
  Proof.
    apply BuiltValue_sind.
    - intros. cbn. lia.
    - intros es d _ _ IH. rewrite txt_array. cbn [length]. rewrite app_length. cbn [length].
      pose proof (depth_array_le _ es _ (abs_built_array es REmpty false d None) (elems_depth_le value_decor es IH)) as G.
      unfold bytes in *. lia.
    - intros es d _ _ IH. rewrite txt_array_ml. cbn [length]. rewrite !app_length. cbn [length].
      pose proof (depth_array_le _ es _ (abs_built_array_ml es (RExplicit [x0a]) true d None) (elems_depth_le ml_decor es IH)) as G.
      unfold bytes in *. lia.
    - intros l d _ _ _ _ IH. rewrite txt_inline. cbn [length]. rewrite app_length. cbn [length].
      set (L := map (fun kv => (key_new (fst kv), (value_decor (snd kv), txt ftext (snd kv)))) l).
      pose proof (depth_inline_le _ l (length (inl_txt L)) (abs_built_inline l REmpty false false d None)) as G.
      assert (Hall : forall kv, In kv l -> value_depth (snd kv) <= length (inl_txt L)).
      { intros kv Hkv. rewrite Forall_forall in IH. specialize (IH (snd kv) (in_map _ _ _ Hkv)).
        pose proof (inl_txt_len L _ (in_map (fun kv => (key_new (fst kv), (value_decor (snd kv), txt ftext (snd kv)))) _ _ Hkv)) as H.
        cbn [snd] in H. unfold bytes in *. lia. }
      specialize (G Hall). unfold bytes in *. lia.
  Qed.
End Len.

(* ---- C06_value ---------------------------------------------------------------------------------------------- *)
(* the decor a lone value is printed with is its own; a value that was pushed into an array carries
   the blank the array gave it (Array::push: " " before every element but the first), and
   Value::from_str does not accept a leading blank: the lone-value statement is about values whose own
   prefix prints as nothing (every value fresh from a constructor) *)
Definition top_plain (v : value) : Prop := decor_prefix (value_decor v) [] = [].

Theorem built_value_roundtrip v :
  BuiltValue scalar_ok key_ok v -> value_depth v < LIMIT -> top_plain v ->
  exists v', parse_value_raw (display_value (render_value float_text v)) = POk v' /\ abs_value v' = abs_value v.
Proof.
  intros Hb Hd Hp.
  pose proof (BuiltValue_mono _ (leaf_ok float_text) _ key_ok scalar_leaf (fun k H => H) v Hb) as Hb'.
  rewrite (display_value_txt float_text _ _ v Hb).
  unfold etxt, wrap. cbn [fst snd]. unfold top_plain in Hp. rewrite Hp.
  assert (Hs : decor_suffix (value_decor v) [] = []).
  { destruct (built_decor _ _ _ Hb) as [_ [H | H]]; unfold decor_suffix; rewrite H; reflexivity. }
  rewrite Hs, app_nil_r. cbn [app].
  destruct (value_txt_rt float_text v Hb') as [_ Hrt].
  pose proof (depth_le_txt float_text _ _ v Hb) as Hlen.
  destruct (Hrt (S (length (txt float_text v ++ []))) [] 0 I) with (p := 0%N) as (v' & p' & E & Ha).
  { rewrite app_nil_r. lia. }
  { cbn [Nat.add]. exact Hd. }
  exists v'. split; [|exact Ha].
  unfold parse_value_raw.
  assert (Ev : value_ (new_input (txt float_text v)) = Ok v' (mkIn [] p' 0)).
  { unfold value_, new_input. cbn [rest]. rewrite app_nil_r in E. exact E. }
  rewrite (parse_all_eoi_ok _ _ _ _ Ev eq_refl). reflexivity.
Qed.

(* ... in particular for everything the value constructors assemble *)
Theorem constructed_value_roundtrip c :
  cval_ok scalar_ok key_ok c -> value_depth (eval_value c) < LIMIT ->
  exists v', parse_value_raw (display_value (render_value float_text (eval_value c))) = POk v'
             /\ abs_value v' = abs_value (eval_value c).
Proof.
  intros Hc Hd. destruct (eval_value_built scalar_ok key_ok c Hc) as [Hb Hdec].
  apply built_value_roundtrip; [exact Hb|exact Hd|]. unfold top_plain. rewrite Hdec. reflexivity.
Qed.
