(* Proofs/SerdeRTFamily.v — C07: what toml_edit's ValueSerializer (ser_value) and toml::Value's serializer (tv_ser) have in
   common.  Both walk a value in the same way and differ in three places only: the integer leaf, the way a map key
   is turned into text, and the order in which a table keeps its entries.  `ser_family` records the walk (one
   unfolding equation per well-typed shape, each true by computation for either serializer), `de_family` the same for
   the two deserializers.  Three theorems are proved once over a family, each with what it needs to know about
   integers, keys and tables as hypotheses: a failure names a documented unsupported shape (family_errors), a value with
   such a shape is refused (family_refused), a value without one that is accepted reads back equal (family_roundtrip). *)
From TV Require Import Base.Prelude Base.Utf8 Model.DatetimeStd Model.WriteFloat Model.SerNum Spec.SerdeData Model.Ser Model.De
  Proofs.DatetimeEq Proofs.SerdeRTBase Proofs.SerdeRTEq Proofs.SerdeRTLeaf Proofs.SerdeRTLists Proofs.SerdeRTKeys.
From Coq Require Import Permutation.

(* ---- the walk both serializers share ---- *)
Section Walk.
  Variable ser : ty -> sval -> result tomlval.
  Variable payload : variant -> sval -> result tomlval.
  Variable key : ty -> sval -> result bytes.
  Definition fields_of (fs : list (bytes * ty)) (vs : list sval) : result (list (option (bytes * tomlval))) :=
    zipM (fun ft v' => rmap (optmap (fun x => (fst ft, x))) (ser_map_value ser (snd ft) v')) fs vs.
  Definition entries_of (kt vt : ty) (es : list (sval * sval)) : result (list (option (bytes * tomlval))) :=
    mapM (fun kv => rbind (key kt (fst kv)) (fun k => rmap (optmap (fun x => (k, x))) (ser_map_value ser vt (snd kv)))) es.
  Definition variant_of (p : sval) (nv : bytes * variant) : result tomlval :=
    match snd nv with
    | VUnit => match p with SUnit => Ok (VStr (fst nv)) | _ => Err EBadCase end
    | _ => rmap (fun x => VTab [(fst nv, x)]) (payload (snd nv) p)
    end.
End Walk.

Record ser_family := {
  f_ser : ty -> sval -> result tomlval;
  f_payload : variant -> sval -> result tomlval;
  f_key : ty -> sval -> result bytes;
  f_table : list (bytes * tomlval) -> list (bytes * tomlval);
  f_int : int_ty -> Z -> result tomlval;
  f_bool : forall b, f_ser TBool (SBool b) = Ok (VBool b);
  f_int_eq : forall w z, f_ser (TInt w) (SInt z) = f_int w z;
  f_f64 : forall b, f_ser (TFloat F64) (SF64 b) = Ok (VFloat (canon_nan b));
  f_f32 : forall b, f_ser (TFloat F32) (SF32 b) = Ok (VFloat (canon_nan (widen32 b)));
  f_char : forall c, f_ser TChar (SChar c) = Ok (VStr (utf8_encode c));
  f_str : forall s, f_ser TStr (SStr s) = Ok (VStr s);
  f_dt : forall k d, f_ser (TDatetime k) (SDt d) = ser_datetime d;
  f_unit : f_ser TUnit SUnit = Err (EUnsupportedType (Some S_unit));
  f_unit_struct : forall n, f_ser (TUnitStruct n) SUnit = Err (EUnsupportedType (Some n));
  f_none : forall t, f_ser (TOpt t) SNone = Err EUnsupportedNone;
  f_some : forall t v, f_ser (TOpt t) (SSome v) = f_ser t v;
  f_seq : forall t vs, f_ser (TSeq t) (SSeq vs) = rmap VArr (mapM (f_ser t) vs);
  f_tuple : forall ts vs, f_ser (TTuple ts) (SSeq vs) = rmap VArr (zipM f_ser ts vs);
  f_tuple_struct : forall n ts vs, f_ser (TTupleStruct n ts) (SSeq vs) = rmap VArr (zipM f_ser ts vs);
  f_map : forall kt vt es, f_ser (TMap kt vt) (SMap es) =
            rmap (fun ps => VTab (f_table (somes_pairs ps))) (entries_of f_ser f_key kt vt es);
  f_struct : forall n fs vs, private_name n = false ->
               f_ser (TStruct n fs) (SRec vs) = rmap (fun ps => VTab (f_table (somes_pairs ps))) (fields_of f_ser fs vs);
  f_newtype : forall n t v, f_ser (TNewtype n t) (SNewtype v) = f_ser t v;
  f_enum : forall n vs i p, f_ser (TEnum n vs) (SVariant i p) = pick (variant_of f_payload p) (Err EBadCase) vs i;
  fp_newtype : forall t p, f_payload (VNewtype t) p = f_ser t p;
  fp_tuple : forall ts vs, f_payload (VTuple ts) (SSeq vs) = rmap VArr (zipM f_ser ts vs);
  fp_struct : forall fs vs, f_payload (VStruct fs) (SRec vs) =
                rmap (fun ps => VTab (f_table (somes_pairs ps))) (fields_of f_ser fs vs)
}.

Definition edit_family : ser_family.
Proof.
  refine {| f_ser := ser_value; f_payload := ser_payload; f_key := ser_key; f_table := tab_of_pairs; f_int := ser_int_value |};
    try reflexivity.
  intros n fs vs H. rewrite sv_struct, (private_not_dt n H). reflexivity.
Defined.

Definition tv_family : ser_family.
Proof.
  refine {| f_ser := tv_ser; f_payload := tv_payload; f_key := fun t a => tv_key (tv_ser t a); f_table := btree_of_pairs;
            f_int := fun w z => match tv_ser_int w z with Some i => Ok (VInt i) | None => Err (tv_int_err w) end |};
    try reflexivity.
  intros n fs vs H. cbn [tv_ser]. rewrite (private_not_dt n H). unfold fields_of.
  match goal with |- rbind ?r _ = _ => destruct r end; reflexivity.
Defined.

(* ---- the key types at which a family refuses every bad key: a condition on all map types inside a type ---- *)
Section KeysAll.
  Variable K : ty -> bool.
  Fixpoint keys_all (t : ty) {struct t} : bool :=
    match t with
    | TOpt t' | TSeq t' | TNewtype _ t' => keys_all t'
    | TTuple ts | TTupleStruct _ ts => forallb keys_all ts
    | TMap k v => K k && keys_all k && keys_all v
    | TStruct _ fs => forallb (fun ft => keys_all (snd ft)) fs
    | TEnum _ vs => forallb (fun nv => keys_all_variant (snd nv)) vs
    | _ => true
    end
  with keys_all_variant (var : variant) {struct var} : bool :=
    match var with
    | VUnit => true
    | VNewtype t => keys_all t
    | VTuple ts => forallb keys_all ts
    | VStruct fs => forallb (fun ft => keys_all (snd ft)) fs
    end.

  Lemma keys_all_map kt vt : keys_all (TMap kt vt) = K kt && keys_all kt && keys_all vt.
  Proof. reflexivity. Qed.
  Lemma keys_all_enum n vs : keys_all (TEnum n vs) = forallb (fun nv => keys_all_variant (snd nv)) vs.
  Proof. reflexivity. Qed.
  Lemma keys_all_nth (ts : list ty) i t : forallb keys_all ts = true -> nth_error ts i = Some t -> keys_all t = true.
  Proof. intros H Hn. rewrite forallb_forall in H. apply H. eapply nth_error_In; exact Hn. Qed.
  Lemma keys_all_field (fs : list (bytes * ty)) i f t :
    forallb (fun ft => keys_all (snd ft)) fs = true -> nth_error fs i = Some (f, t) -> keys_all t = true.
  Proof. intros H Hn. rewrite forallb_forall in H. apply (H (f, t)). eapply nth_error_In; exact Hn. Qed.
End KeysAll.

Lemma doc_keys_all t : doc_keys t = keys_all doc_key_ty t.
Proof. reflexivity. Qed.

Lemma keys_all_any : forall t, keys_all (fun _ => true) t = true.
Proof.
  induction t using ty_ind2 with (Q := fun var => keys_all_variant (fun _ => true) var = true); simpl; try reflexivity;
    try assumption; try (apply forallb_forall; rewrite Forall_forall in H; exact H).
  rewrite keys_all_map, IHt1, IHt2. reflexivity.
Qed.

Scheme unsupported_min := Minimality for unsupported Sort Prop
  with unsupported_variant_min := Minimality for unsupported_variant Sort Prop.

Section Family.
  Variable F : ser_family.
  Local Notation ser := (f_ser F).
  Local Notation payload := (f_payload F).
  Local Notation key := (f_key F).

  (* ==== a failure names a documented unsupported shape; `R` relates the family's error to the documented one ==== *)
  Section Errors.
    Variable R : err -> err -> Prop.
    Hypothesis R_refl : forall e, R e e.
    Hypothesis int_err : forall w z e, f_int F w z = Err e -> exists e', R e e' /\ unsupported CElem (TInt w) (SInt z) e'.
    Hypothesis key_err : forall t a e, has_type_b t a = true -> key t a = Err e -> exists e', R e e' /\ bad_key t a e'.

    Definition ERRS (t : ty) : Prop :=
      forall v e, has_type_b t v = true -> ser t v = Err e -> exists e', R e e' /\ unsupported CElem t v e'.
    Definition ERRSV (var : variant) : Prop :=
      var <> VUnit -> forall p e, has_type_variant_b var p = true -> payload var p = Err e ->
      exists e', R e e' /\ unsupported_variant var p e'.

    Lemma errs_map_value t v e : ERRS t -> has_type_b t v = true ->
      ser_map_value ser t v = Err e -> exists e', R e e' /\ unsupported CField t v e'.
    Proof.
      intros IH Hty H. destruct (ser_map_value_cases ser t v) as [(t' & -> & -> & E)|[Hn E]]; rewrite E in H; [discriminate|].
      apply rmap_err in H. destruct (IH v e Hty H) as (e' & Re & U). exists e'. split; [exact Re|].
      apply unsupported_ctx; [exact U|]. intros ->. apply (Hn (none_typed t Hty)). reflexivity.
    Qed.

    Lemma errs_tuple ts vs e : Forall ERRS ts -> all2b has_type_b ts vs = true -> zipM ser ts vs = Err e ->
      exists i t v e', nth_error ts i = Some t /\ nth_error vs i = Some v /\ R e e' /\ unsupported CElem t v e'.
    Proof.
      intros IH Hty H. apply all2b_Forall2 in Hty.
      destruct (zipM_err _ _ _ _ (Forall2_length' _ _ _ Hty) H) as (i & t & v & H1 & H2 & H3).
      rewrite Forall_forall in IH.
      destruct (IH t (nth_error_In _ _ H1) v e (Forall2_nth _ _ _ _ _ _ Hty H1 H2) H3) as (e' & Re & U).
      exists i, t, v, e'. auto.
    Qed.

    Lemma errs_fields fs vs e : Forall (fun ft => ERRS (snd ft)) fs ->
      all2b (fun ft v' => has_type_b (snd ft) v') fs vs = true -> fields_of ser fs vs = Err e ->
      exists i f t v e', nth_error fs i = Some (f, t) /\ nth_error vs i = Some v /\ R e e' /\ unsupported CField t v e'.
    Proof.
      intros IH Hty H. apply all2b_Forall2 in Hty. unfold fields_of in H.
      destruct (zipM_err _ _ _ _ (Forall2_length' _ _ _ Hty) H) as (i & [f t] & v & H1 & H2 & H3).
      simpl in H3. apply rmap_err in H3. rewrite Forall_forall in IH.
      destruct (errs_map_value t v e (IH (f, t) (nth_error_In _ _ H1)) (Forall2_nth _ _ _ _ _ _ Hty H1 H2) H3) as (e' & Re & U).
      exists i, f, t, v, e'. auto.
    Qed.

    Theorem family_errors : forall t, ERRS t.
    Proof.
      induction t using ty_ind2 with (Q := ERRSV); unfold ERRS, ERRSV in *.
      - intros v e Hty Hser. destruct v; simpl in Hty; try discriminate Hty. rewrite f_bool in Hser. discriminate Hser.
      - intros v e Hty Hser. destruct v; simpl in Hty; try discriminate Hty. rewrite f_int_eq in Hser. apply int_err, Hser.
      - intros v e Hty Hser. destruct w; destruct v; simpl in Hty; try discriminate Hty;
          [rewrite f_f32 in Hser|rewrite f_f64 in Hser]; discriminate Hser.
      - intros v e Hty Hser. destruct v; simpl in Hty; try discriminate Hty. rewrite f_char in Hser. discriminate Hser.
      - intros v e Hty Hser. destruct v; simpl in Hty; try discriminate Hty. rewrite f_str in Hser. discriminate Hser.
      - (* TDatetime: the tunnel text is what Display printed; it parses (C12) *)
        intros v e Hty Hser. destruct v; simpl in Hty; try discriminate Hty. rewrite f_dt in Hser.
        apply andb_true_iff in Hty as [Hr _]. unfold ser_datetime, dt_field_str in Hser.
        rewrite (print_parse_std d Hr) in Hser. discriminate Hser.
      - intros v e Hty Hser. destruct v; simpl in Hty; try discriminate Hty. rewrite f_unit in Hser. injection Hser as <-.
        eexists. split; [apply R_refl|apply u_unit].
      - intros v e Hty Hser. destruct v; simpl in Hty; try discriminate Hty. rewrite f_unit_struct in Hser. injection Hser as <-.
        eexists. split; [apply R_refl|apply u_unit_struct].
      - intros v e Hty Hser. destruct v; simpl in Hty; try discriminate Hty.
        + rewrite f_none in Hser. injection Hser as <-. eexists. split; [apply R_refl|apply u_none].
        + rewrite f_some in Hser. destruct (IHt v e Hty Hser) as (e' & Re & U). exists e'. split; [exact Re|apply u_some, U].
      - intros v e Hty Hser. destruct v; try (simpl in Hty; discriminate Hty).
        rewrite ht_seq in Hty. rewrite f_seq in Hser. apply rmap_err in Hser.
        destruct (mapM_err _ _ _ Hser) as (a & Hin & Ha). rewrite forallb_forall in Hty.
        destruct (IHt a e (Hty a Hin) Ha) as (e' & Re & U). exists e'. split; [exact Re|eapply u_seq; eassumption].
      - intros v e Hty Hser. destruct v; try (simpl in Hty; discriminate Hty).
        rewrite ht_tuple in Hty. rewrite f_tuple in Hser. apply rmap_err in Hser.
        destruct (errs_tuple ts vs e H Hty Hser) as (i & t & v & e' & H1 & H2 & Re & U).
        exists e'. split; [exact Re|eapply u_tuple; eassumption].
      - intros v e Hty Hser. destruct v; try (simpl in Hty; discriminate Hty).
        rewrite ht_map in Hty. apply andb_true_iff in Hty as [Hty _]. apply andb_true_iff in Hty as [_ Hes].
        rewrite f_map in Hser. apply rmap_err in Hser. unfold entries_of in Hser.
        destruct (mapM_err _ _ _ Hser) as ([k x] & Hin & Ha). simpl in Ha.
        rewrite forallb_forall in Hes. specialize (Hes _ Hin). simpl in Hes. apply andb_true_iff in Hes as [Hk Hx].
        apply rbind_err in Ha as [Ha|(s & _ & Ha)].
        + destruct (key_err t1 k e Hk Ha) as (e' & Re & B). exists e'. split; [exact Re|eapply u_map_key; eassumption].
        + apply rmap_err in Ha. destruct (errs_map_value t2 x e IHt2 Hx Ha) as (e' & Re & U).
          exists e'. split; [exact Re|eapply u_map_val; eassumption].
      - intros v e Hty Hser. destruct v; try (simpl in Hty; discriminate Hty).
        rewrite ht_struct in Hty. apply andb_true_iff in Hty as [Hty Hvs]. apply andb_true_iff in Hty as [Hpriv _].
        apply negb_true_iff in Hpriv. rewrite (f_struct F n fs vs Hpriv) in Hser. apply rmap_err in Hser.
        destruct (errs_fields fs vs e H Hvs Hser) as (i & f & t & v & e' & H1 & H2 & Re & U).
        exists e'. split; [exact Re|eapply u_struct; eassumption].
      - intros v e Hty Hser. destruct v; try (simpl in Hty; discriminate Hty).
        rewrite ht_newtype in Hty. rewrite f_newtype in Hser. destruct (IHt v e Hty Hser) as (e' & Re & U).
        exists e'. split; [exact Re|apply u_newtype, U].
      - intros v e Hty Hser. destruct v; try (simpl in Hty; discriminate Hty).
        rewrite ht_tuple_struct in Hty. rewrite f_tuple_struct in Hser. apply rmap_err in Hser.
        destruct (errs_tuple ts vs e H Hty Hser) as (i & t & v & e' & H1 & H2 & Re & U).
        exists e'. split; [exact Re|eapply u_tuple_struct; eassumption].
      - intros v e Hty Hser. destruct v as [| | | | | | | | | | | | | |i p]; try (simpl in Hty; discriminate Hty).
        rewrite ht_enum in Hty. apply andb_true_iff in Hty as [_ Hp]. rewrite f_enum in Hser.
        destruct (pick_cases (variant_of payload p) (Err EBadCase) vs i) as [([vn var] & Hn & E)|[Hn E]].
        + rewrite E in Hser. rewrite (pick_nth _ _ _ _ _ Hn) in Hp. simpl in Hp.
          assert (HQ : var <> VUnit -> forall q e0, has_type_variant_b var q = true -> payload var q = Err e0 ->
                       exists e', R e0 e' /\ unsupported_variant var q e').
          { rewrite Forall_forall in H. apply (H (vn, var)). eapply nth_error_In; exact Hn. }
          unfold variant_of in Hser. simpl in Hser.
          destruct var; [apply htv_unit in Hp; subst p; discriminate Hser| | |];
            apply rmap_err in Hser;
            (destruct (HQ ltac:(discriminate) p e Hp Hser) as (e' & Re & U); exists e'; split; [exact Re|eapply u_variant; eassumption]).
        + rewrite (pick_none _ _ _ _ Hn) in Hp. discriminate Hp.
      - intros Hne. contradiction.
      - intros _ p e Hty Hser. rewrite htv_newtype in Hty. rewrite fp_newtype in Hser.
        destruct (IHt p e Hty Hser) as (e' & Re & U). exists e'. split; [exact Re|apply uv_newtype, U].
      - intros _ p e Hty Hser. destruct p; try (simpl in Hty; discriminate Hty).
        rewrite htv_tuple in Hty. rewrite fp_tuple in Hser. apply rmap_err in Hser.
        destruct (errs_tuple ts vs e H Hty Hser) as (i & t & v & e' & H1 & H2 & Re & U).
        exists e'. split; [exact Re|eapply uv_tuple; eassumption].
      - intros _ p e Hty Hser. destruct p; try (simpl in Hty; discriminate Hty).
        rewrite htv_struct in Hty. apply andb_true_iff in Hty as [_ Hvs]. rewrite fp_struct in Hser. apply rmap_err in Hser.
        destruct (errs_fields fs vs e H Hvs Hser) as (i & f & t & v & e' & H1 & H2 & Re & U).
        exists e'. split; [exact Re|eapply uv_struct; eassumption].
    Qed.
  End Errors.

  (* ==== conversely, a value with a documented unsupported shape is refused: nothing is silently dropped or altered.
     `K`: the map key types at which the family refuses every bad key ==== *)
  Section Refused.
    Variable K : ty -> bool.
    Hypothesis int_refused : forall w z, ser_method_of w <> M_i64 -> (ser_method_of w = M_u64 -> fits_i64 z = false) ->
      exists e', f_int F w z = Err e'.
    Hypothesis key_refused : forall t a e, bad_key t a e -> has_type_b t a = true -> K t = true -> exists e', key t a = Err e'.

    (* in a field position the failure must also come out of MapValueSerializer (only a direct None is swallowed there) *)
    Definition REF (c : ctx) (t : ty) (v : sval) (e : err) : Prop :=
      has_type_b t v = true -> keys_all K t = true ->
      exists e', ser t v = Err e' /\ (c = CField -> ser_map_value ser t v = Err e').
    Definition REFV (var : variant) (p : sval) (e : err) : Prop :=
      has_type_variant_b var p = true -> keys_all_variant K var = true -> exists e', payload var p = Err e'.

    Lemma ref_intro c t v e : ser t v = Err e -> v <> SNone ->
      exists e', ser t v = Err e' /\ (c = CField -> ser_map_value ser t v = Err e').
    Proof. intros E Hn. exists e. split; [exact E|]. intros _. rewrite ser_map_value_not_none, E by exact Hn. reflexivity. Qed.

    Lemma entry_fails kt vt es k v e : In (k, v) es ->
      rbind (key kt k) (fun k0 => rmap (optmap (fun x => (k0, x))) (ser_map_value ser vt v)) = Err e ->
      exists e', ser (TMap kt vt) (SMap es) = Err e'.
    Proof.
      intros Hin E. rewrite f_map. unfold entries_of.
      destruct (mapM_fails (fun kv => rbind (key kt (fst kv)) (fun k0 =>
                  rmap (optmap (fun x => (k0, x))) (ser_map_value ser vt (snd kv)))) es (k, v) e Hin E) as (e' & ->).
      simpl. eauto.
    Qed.

    Lemma field_fails fs vs i f t v e : nth_error fs i = Some (f, t) -> nth_error vs i = Some v ->
      ser_map_value ser t v = Err e -> exists e', fields_of ser fs vs = Err e'.
    Proof. intros H1 H2 E. unfold fields_of. eapply zipM_fails; [exact H1|exact H2|]. simpl. rewrite E. reflexivity. Qed.

    Theorem family_refused : forall c t v e, unsupported c t v e -> REF c t v e.
    Proof.
      apply (unsupported_min REF REFV); unfold REF, REFV.
      - (* u_none *) intros t _ _. exists EUnsupportedNone. split; [apply f_none|discriminate].
      - (* u_some *) intros c t v e _ IH Hty Hk. rewrite ht_opt_some in Hty. destruct (IH Hty Hk) as (e' & E & _).
        apply ref_intro with e'; [rewrite f_some; exact E|discriminate].
      - intros c _ _. eapply ref_intro; [apply f_unit|discriminate].
      - intros c n _ _. eapply ref_intro; [apply f_unit_struct|discriminate].
      - (* u_u64 *) intros c w z M Fz _ _. destruct (int_refused w z) as (e' & E); [congruence|auto|].
        apply ref_intro with e'; [rewrite f_int_eq; exact E|discriminate].
      - intros c w z M _ _. destruct (int_refused w z) as (e' & E); [congruence|congruence|].
        apply ref_intro with e'; [rewrite f_int_eq; exact E|discriminate].
      - intros c w z M _ _. destruct (int_refused w z) as (e' & E); [congruence|congruence|].
        apply ref_intro with e'; [rewrite f_int_eq; exact E|discriminate].
      - (* u_seq *) intros c t vs v e Hin _ IH Hty Hk. rewrite ht_seq in Hty. rewrite forallb_forall in Hty.
        destruct (IH (Hty v Hin) Hk) as (e' & E & _). destruct (mapM_fails (ser t) vs v e' Hin E) as (e'' & E'').
        apply ref_intro with e''; [rewrite f_seq, E''; reflexivity|discriminate].
      - (* u_tuple *) intros c ts vs i t v e H1 H2 _ IH Hty Hk. rewrite ht_tuple in Hty.
        destruct (IH (all2b_nth _ _ _ _ _ _ Hty H1 H2) (keys_all_nth K ts i t Hk H1)) as (e' & E & _).
        destruct (zipM_fails ser ts vs i t v e' H1 H2 E) as (e'' & E'').
        apply ref_intro with e''; [rewrite f_tuple, E''; reflexivity|discriminate].
      - (* u_tuple_struct *) intros c n ts vs i t v e H1 H2 _ IH Hty Hk. rewrite ht_tuple_struct in Hty.
        destruct (IH (all2b_nth _ _ _ _ _ _ Hty H1 H2) (keys_all_nth K ts i t Hk H1)) as (e' & E & _).
        destruct (zipM_fails ser ts vs i t v e' H1 H2 E) as (e'' & E'').
        apply ref_intro with e''; [rewrite f_tuple_struct, E''; reflexivity|discriminate].
      - (* u_map_key *) intros c kt vt es k v e Hin Hbk Hty Hk. rewrite ht_map in Hty.
        apply andb_true_iff in Hty as [Hty _]. apply andb_true_iff in Hty as [_ Hes]. rewrite forallb_forall in Hes.
        pose proof (Hes _ Hin) as Hkv. simpl in Hkv. apply andb_true_iff in Hkv as [Hkt _].
        rewrite keys_all_map in Hk. apply andb_true_iff in Hk as [Hk _]. apply andb_true_iff in Hk as [HK _].
        destruct (key_refused kt k e Hbk Hkt HK) as (e' & E).
        destruct (entry_fails kt vt es k v e' Hin) as (e'' & E''); [rewrite E; reflexivity|].
        apply ref_intro with e''; [exact E''|discriminate].
      - (* u_map_val *) intros c kt vt es k v e Hin _ IH Hty Hk. rewrite ht_map in Hty.
        apply andb_true_iff in Hty as [Hty _]. apply andb_true_iff in Hty as [_ Hes]. rewrite forallb_forall in Hes.
        pose proof (Hes _ Hin) as Hkv. simpl in Hkv. apply andb_true_iff in Hkv as [_ Hv].
        rewrite keys_all_map in Hk. apply andb_true_iff in Hk as [_ Hkv].
        destruct (IH Hv Hkv) as (e' & _ & E). specialize (E eq_refl).
        assert (exists e0, rbind (key kt k) (fun k0 => rmap (optmap (fun x => (k0, x))) (ser_map_value ser vt v)) = Err e0) as (e0 & E0).
        { destruct (key kt k); simpl; [rewrite E; simpl|]; eauto. }
        destruct (entry_fails kt vt es k v e0 Hin E0) as (e'' & E'').
        apply ref_intro with e''; [exact E''|discriminate].
      - (* u_struct *) intros c n fs vs i f t v e H1 H2 _ IH Hty Hk. rewrite ht_struct in Hty.
        apply andb_true_iff in Hty as [Hty Hvs]. apply andb_true_iff in Hty as [Hpriv _]. apply negb_true_iff in Hpriv.
        pose proof (all2b_nth _ _ _ _ _ _ Hvs H1 H2) as Hv. simpl in Hv.
        destruct (IH Hv (keys_all_field K fs i f t Hk H1)) as (e' & _ & E). specialize (E eq_refl).
        destruct (field_fails fs vs i f t v e' H1 H2 E) as (e'' & E'').
        apply ref_intro with e''; [rewrite (f_struct F n fs vs Hpriv), E''; reflexivity|discriminate].
      - (* u_newtype *) intros c n t v e _ IH Hty Hk. rewrite ht_newtype in Hty. destruct (IH Hty Hk) as (e' & E & _).
        apply ref_intro with e'; [rewrite f_newtype; exact E|discriminate].
      - (* u_variant *) intros c n vs i vn var p e Hn Hu IH Hty Hk. rewrite ht_enum in Hty. apply andb_true_iff in Hty as [_ Hp].
        rewrite (pick_nth _ _ _ _ _ Hn) in Hp. simpl in Hp.
        assert (Hkv : keys_all_variant K var = true).
        { rewrite keys_all_enum, forallb_forall in Hk. apply (Hk (vn, var)). eapply nth_error_In; exact Hn. }
        destruct (IH Hp Hkv) as (e' & E).
        apply ref_intro with e'; [|discriminate].
        rewrite f_enum, (pick_nth _ _ _ _ _ Hn). unfold variant_of. simpl. destruct var; [inversion Hu| | |]; rewrite E; reflexivity.
      - (* uv_newtype *) intros t p e _ IH Hty Hk. rewrite htv_newtype in Hty. destruct (IH Hty Hk) as (e' & E & _).
        exists e'. rewrite fp_newtype. exact E.
      - (* uv_tuple *) intros ts vs i t v e H1 H2 _ IH Hty Hk. rewrite htv_tuple in Hty.
        destruct (IH (all2b_nth _ _ _ _ _ _ Hty H1 H2) (keys_all_nth K ts i t Hk H1)) as (e' & E & _).
        destruct (zipM_fails ser ts vs i t v e' H1 H2 E) as (e'' & E'').
        exists e''. rewrite fp_tuple, E''. reflexivity.
      - (* uv_struct *) intros fs vs i f t v e H1 H2 _ IH Hty Hk. rewrite htv_struct in Hty. apply andb_true_iff in Hty as [_ Hvs].
        pose proof (all2b_nth _ _ _ _ _ _ Hvs H1 H2) as Hv. simpl in Hv.
        destruct (IH Hv (keys_all_field K fs i f t Hk H1)) as (e' & _ & E). specialize (E eq_refl).
        destruct (field_fails fs vs i f t v e' H1 H2 E) as (e'' & E'').
        exists e''. rewrite fp_struct, E''. reflexivity.
    Qed.
  End Refused.
End Family.

(* ==== reading back ============================================================================================
   The two deserializers (de_value, tv_de) visit a tree in the same way, too; they differ in what happens to input
   no serializer produces (elements left over, unknown keys, the private names), so the equations for containers are
   stated on the inputs the round trip meets. *)
Record de_family := {
  d_de : ty -> tomlval -> result sval;
  d_payload : variant -> tomlval -> result sval;
  d_key : ty -> bytes -> result sval;
  d_bool : forall b, d_de TBool (VBool b) = Ok (SBool b);
  d_int : forall w z, d_de (TInt w) (VInt z) = match de_int w z with Some z' => Ok (SInt z') | None => Err EDe end;
  d_f64 : forall b, d_de (TFloat F64) (VFloat b) = Ok (SF64 b);
  d_f32 : forall b, d_de (TFloat F32) (VFloat b) = Ok (SF32 (narrow32 b));
  d_char : forall s, d_de TChar (VStr s) = de_char s;
  d_str : forall s, d_de TStr (VStr s) = Ok (SStr s);
  d_dt : forall k d, d_de (TDatetime k) (VDatetime d) = rbind (de_dt_str (display_datetime d)) (dt_kind_check k);
  d_opt : forall t x, d_de (TOpt t) x = rmap SSome (d_de t x);
  d_seq : forall t xs, d_de (TSeq t) (VArr xs) = rmap SSeq (mapM (d_de t) xs);
  d_tuple : forall ts xs vs, de_pos d_de (fun t' => t') ts xs = Ok (vs, []) -> d_de (TTuple ts) (VArr xs) = Ok (SSeq vs);
  d_tuple_struct : forall n ts xs vs,
    de_pos d_de (fun t' => t') ts xs = Ok (vs, []) -> d_de (TTupleStruct n ts) (VArr xs) = Ok (SSeq vs);
  d_map : forall kt vt es, d_de (TMap kt vt) (VTab es) =
    rmap (fun ps => SMap (smap_of_pairs ps))
         (mapM (fun kx => rbind (d_key kt (fst kx)) (fun k => rmap (fun v => (k, v)) (d_de vt (snd kx)))) es);
  d_struct : forall n fs es, private_name n = false -> d_de (TStruct n fs) (VTab es) = rmap SRec (de_struct_map d_de fs es);
  d_newtype : forall n t x, d_de (TNewtype n t) x = rmap SNewtype (d_de t x);
  d_enum_str : forall n vs s, d_de (TEnum n vs) (VStr s) = find_name de_unit_only (Err EDe) s vs 0;
  d_enum_tab : forall n vs k y, d_de (TEnum n vs) (VTab [(k, y)]) =
    find_name (fun i var => rmap (SVariant i) (d_payload var y)) (Err EDe) k vs 0;
  dpl_newtype : forall t y, d_payload (VNewtype t) y = d_de t y;
  dpl_tuple : forall ts xs vs, length xs = length ts -> de_pos d_de (fun t' => t') ts xs = Ok (vs, []) ->
    d_payload (VTuple ts) (VArr xs) = Ok (SSeq vs);
  dpl_struct : forall fs es, struct_keys_ok (map fst fs) es = true ->
    d_payload (VStruct fs) (VTab es) = rmap SRec (de_struct_map d_de fs es)
}.

Definition edit_de_family : de_family.
Proof.
  refine {| d_de := de_value; d_payload := de_payload; d_key := de_key |}; try reflexivity.
  - intros ts xs vs H. rewrite dv_tuple, H. reflexivity.
  - intros n ts xs vs H. rewrite dv_tuple_struct, H. reflexivity.
  - intros n fs es H. rewrite dv_struct, H. reflexivity.
  - intros ts xs vs Hl H. rewrite dp_tuple, Hl, Nat.eqb_refl, H. reflexivity.
  - intros fs es H. rewrite dp_struct, H. reflexivity.
Defined.

Definition tv_de_family : de_family.
Proof.
  refine {| d_de := tv_de; d_payload := tv_de_payload; d_key := fun t s => tv_de t (VStr s) |}; try reflexivity.
  - intros ts xs vs H. cbn [tv_de]. unfold all_read. rewrite H. reflexivity.
  - intros n ts xs vs H. cbn [tv_de]. unfold all_read. rewrite H. reflexivity.
  - intros ts xs vs Hl H. cbn [tv_de_payload]. unfold all_read. rewrite Hl, Nat.eqb_refl, H. reflexivity.
Defined.

(* ---- the tree read need not be the tree written: a relation that keeps leaves (floats up to the NaN payload) and lets the
   entries of a table come in any order is enough for reading back.  Equality is one; what printing and parsing the
   tree does to it is another (SerDocDe). ---- *)
Record tree_rel := {
  tr : tomlval -> tomlval -> Prop;
  tr_str : forall s y, tr (VStr s) y -> y = VStr s;
  tr_int : forall z y, tr (VInt z) y -> y = VInt z;
  tr_bool : forall b y, tr (VBool b) y -> y = VBool b;
  tr_dt : forall d y, tr (VDatetime d) y -> y = VDatetime d;
  tr_float : forall a y, tr (VFloat a) y -> exists b, y = VFloat b /\ f64_eq a b;
  tr_arr : forall xs y, tr (VArr xs) y -> exists ys, y = VArr ys /\ Forall2 tr xs ys;
  tr_tab : forall es y, tr (VTab es) y -> exists es' fs, y = VTab fs /\ Permutation es es' /\ Forall2 (entry_rel tr) es' fs
}.

Definition same_tree : tree_rel.
Proof.
  refine {| tr := eq |}; try (intros; subst; reflexivity).
  - intros a y <-. exists a. split; [reflexivity|left; reflexivity].
  - intros xs y <-. exists xs. split; [reflexivity|apply Forall2_refl; reflexivity].
  - intros es y <-. exists es, es. split; [reflexivity|]. split; [apply Permutation_refl|].
    apply Forall2_refl. intro a. split; reflexivity.
Defined.

Lemma tr_one (E : tree_rel) k x y : tr E (VTab [(k, x)]) y -> exists x', y = VTab [(k, x')] /\ tr E x x'.
Proof.
  intro H. destruct (tr_tab E _ _ H) as (es' & fs & -> & P & Fe).
  apply Permutation_length_1_inv in P. subst es'.
  inversion Fe as [|? [k' x'] ? ? [Hk He] Ft]; subst. inversion Ft; subst. simpl in Hk, He. subst k'. eauto.
Qed.

(* ---- a value without unsupported shapes that is accepted reads back as an equal value ---- *)
Section RoundTrip.
  Variable F : ser_family.
  Variable D : de_family.
  Variable E : tree_rel.
  Local Notation ser := (f_ser F).
  Local Notation payload := (f_payload F).
  Local Notation de := (d_de D).
  Hypothesis int_ok : forall w z x, in_ty w z = true -> f_int F w z = Ok x -> x = VInt z /\ de_int w z = Some z.
  (* the family's key serializer agrees with KeySerializer where that one succeeds, and its key deserializer reads the text back *)
  Hypothesis key_ok : forall t a s, has_type_b t a = true -> ser_key t a = Ok s -> f_key F t a = Ok s /\ d_key D t s = Ok a.
  Hypothesis table_ok : forall ps, NoDup (map fst ps) -> NoDup (map fst (f_table F ps)) /\ Permutation ps (f_table F ps).

  Definition RTS (t : ty) : Prop := forall v, has_type_b t v = true -> supported t v -> rt_val ser de (tr E) t v.
  Definition RTSV (var : variant) : Prop :=
    var <> VUnit -> forall p x y, has_type_variant_b var p = true -> (forall e, ~ unsupported_variant var p e) ->
                    payload var p = Ok x -> tr E x y -> exists p', d_payload D var y = Ok p' /\ sval_eq p p'.

  Lemma rts_tuple ts vs : Forall RTS ts -> all2b has_type_b ts vs = true ->
    (forall i t v, nth_error ts i = Some t -> nth_error vs i = Some v -> supported t v) -> Forall2 (rt_val ser de (tr E)) ts vs.
  Proof.
    intros IH Hty Hs. apply all2b_Forall2 in Hty.
    apply (Forall2_combine RTS _ (fun t v => supported t v) _ ts vs) with (3 := Hty); [|exact IH|exact Hs].
    intros t v Ht Hv Hsv. apply Ht; assumption.
  Qed.

  Lemma rts_fields (fs : list (bytes * ty)) vs : Forall (fun ft => RTS (snd ft)) fs ->
    all2b (fun ft v' => has_type_b (snd ft) v') fs vs = true ->
    (forall i f t v e, nth_error fs i = Some (f, t) -> nth_error vs i = Some v -> ~ unsupported CField t v e) ->
    Forall2 (fun ft v => rt_val ser de (tr E) (snd ft) v) fs vs.
  Proof.
    intros IH Hty Hs. apply all2b_Forall2 in Hty.
    apply (Forall2_combine _ _ (fun (ft : bytes * ty) v => forall e, ~ unsupported CField (snd ft) v e) _ fs vs) with (2 := IH) (3 := Hty).
    - intros [f t] v Ht Hv Hsv x y Hx. simpl in *. apply (Ht v Hv); [|exact Hx].
      (* a None is not serialized at all, so the value is not one *)
      intros e U. apply (Hsv e). apply unsupported_ctx; [exact U|].
      intros ->. pose proof (none_typed t Hv) as Ho. destruct t; try discriminate Ho. rewrite f_none in Hx. discriminate Hx.
    - intros i [f t] v H1 H2 e. apply (Hs i f t v e H1 H2).
  Qed.

  (* a struct or struct variant written as a table in the family's order, read from a related table *)
  Lemma rts_struct_table (fs : list (bytes * ty)) vs ps y : Forall (fun ft => RTS (snd ft)) fs ->
    nodup_bytes (map fst fs) = true -> all2b (fun ft v' => has_type_b (snd ft) v') fs vs = true ->
    (forall i f t v e, nth_error fs i = Some (f, t) -> nth_error vs i = Some v -> ~ unsupported CField t v e) ->
    fields_of ser fs vs = Ok ps -> tr E (VTab (f_table F (somes_pairs ps))) y ->
    exists es, y = VTab es /\ struct_keys_ok (map fst fs) es = true /\
    exists vs', de_struct_map de fs es = Ok vs' /\ Forall2 sval_eq vs vs'.
  Proof.
    intros IH Hnd Hty Hs H He. apply nodup_bytes_NoDup in Hnd. unfold somes_pairs in He.
    pose proof (fields_rt ser de (tr E) fs vs (rts_fields fs vs IH Hty Hs) ps H) as Frt.
    destruct (table_ok (somes ps) (fields_somes_nodup de fs vs ps Frt Hnd)) as [_ Hperm].
    destruct (tr_tab E _ _ He) as (es' & es & -> & P & F2). exists es. split; [reflexivity|].
    apply (rt_struct_table de (tr E) fs vs ps es' es Frt Hnd (Permutation_trans Hperm P) F2).
  Qed.

  (* ---- maps ---- *)
  Lemma rts_entries kt vt es : RTS vt -> is_opt vt = false ->
    forallb (fun kv => has_type_b kt (fst kv) && has_type_b vt (snd kv)) es = true ->
    (forall k v, In (k, v) es -> (forall e, ~ bad_key kt k e) /\ (forall e, ~ unsupported CField vt v e)) ->
    Forall (fun kv => key_rt (f_key F) (d_key D) kt (fst kv) /\ snd kv <> SNone /\
                      forall x, ser vt (snd kv) = Ok x -> forall y, tr E x y -> exists v', de vt y = Ok v' /\ sval_eq (snd kv) v') es.
  Proof.
    intros IHv Hno Hty Hs. rewrite forallb_forall in Hty. apply Forall_forall. intros [k v] Hin.
    pose proof (Hty _ Hin) as Hkv. simpl in *. apply andb_true_iff in Hkv as [Hk Hv]. destruct (Hs k v Hin) as [Hbk Hbv].
    (* the value type is not an Option, so the value is present *)
    assert (Hvn : v <> SNone) by (intros ->; pose proof (none_typed vt Hv); congruence).
    split; [|split; [exact Hvn|]].
    - intros s Hks. destruct (ser_key kt k) as [s0|e0] eqn:K; [|exfalso; apply (Hbk e0), ser_key_err; assumption].
      destruct (key_ok kt k s0 Hk K) as [K1 K2]. assert (s0 = s) as -> by congruence.
      destruct (key_roundtrip kt k s Hk K) as (K3 & _ & K4). auto.
    - intros x Hx y Hy. apply (IHv v Hv) with (x := x); [|exact Hx|exact Hy].
      intros e U. apply (Hbv e), unsupported_ctx; assumption.
  Qed.

  Lemma rts_map kt vt : RTS vt -> RTS (TMap kt vt).
  Proof.
    intros IHv v Hty Hsup x y H He. destruct v; try (simpl in Hty; discriminate Hty).
    rewrite ht_map in Hty. apply andb_true_iff in Hty as [Hty Hnd]. apply andb_true_iff in Hty as [Hno Hes].
    apply negb_true_iff in Hno. apply nodup_bytes_NoDup in Hnd.
    rewrite f_map in H. apply rmap_ok in H as (ps & Hps & ->).
    destruct (entries_rt ser (f_key F) (d_key D)
                (fun v x => forall y, tr E x y -> exists v', de vt y = Ok v' /\ sval_eq v v') kt vt es) with (ps := ps)
      as (xs & -> & Fx); [|exact Hps|].
    { apply (rts_entries kt vt es IHv Hno Hes).
      intros k v Hin. split; intros e U; apply (Hsup e); [eapply u_map_key|eapply u_map_val]; eassumption. }
    assert (Hk : somes (map (fun kv => key_text kt (fst kv)) es) = map fst xs).
    { apply (entries_keys kt es xs (fun kv kx => d_key D kt (fst kx) = Ok (fst kv) /\ sval_eq (fst kv) (fst kv) /\
                                      forall y, tr E (snd kx) y -> exists v', de vt y = Ok v' /\ sval_eq (snd kv) v')). exact Fx. }
    rewrite Hk in Hnd. unfold somes_pairs in He. rewrite somes_map_Some in He.
    destruct (table_ok xs Hnd) as [_ Hperm].
    destruct (tr_tab E _ _ He) as (xs' & ys & -> & P & F2). pose proof (Permutation_trans Hperm P) as P'.
    destruct (rel_lookup (tr E) _ _ _ P' F2 Hnd) as (Hnd' & _ & _).
    (* the entries of the value, in the order of the table read *)
    destruct (Forall2_perm_r _ _ _ P' es Fx) as (es1 & Pe & F1).
    assert (F3 : Forall2 (fun kv q => key_text kt (fst kv) = Some (fst q) /\ d_key D kt (fst q) = Ok (fst kv) /\ sval_eq (fst kv) (fst kv) /\
                                      exists v', de vt (snd q) = Ok v' /\ sval_eq (snd kv) v') es1 ys).
    { eapply Forall2_compose; [|exact F1|exact F2].
      intros kv kx q (K1 & K2 & K3 & Hv) [Hf Hq]. rewrite <- Hf. repeat split; try assumption. apply (Hv _ Hq). }
    rewrite d_map.
    assert (D0 : exists es2,
              mapM (fun kx => rbind (d_key D kt (fst kx)) (fun k => rmap (fun v => (k, v)) (de vt (snd kx)))) ys = Ok es2 /\
              Forall2 (fun p q => fst p = fst q /\ sval_eq (fst p) (fst q) /\ sval_eq (snd p) (snd q)) es1 es2).
    { clear - F3. induction F3 as [|[k v] [s y] l1 l2 (K1 & K2 & K3 & v' & Dv & Ev) _ IH]; simpl.
      - exists []. split; [reflexivity|constructor].
      - destruct IH as (es' & D0 & E0). simpl in *. rewrite K2. simpl. rewrite Dv. simpl. rewrite D0. simpl.
        exists ((k, v') :: es'). split; [reflexivity|]. constructor; [simpl; auto|exact E0]. }
    destruct D0 as (es2 & D0 & E2). rewrite D0. simpl.
    (* no two keys read are equal *)
    assert (Hdist : ForallOrdPairs (fun p q => sval_beq (fst p) (fst q) = false) es2).
    { apply (keys_distinct kt es2 ys); [|exact Hnd'].
      clear - F3 E2. revert es2 E2. induction F3 as [|kv kx l1 l2 (K1 & _) _ IH]; intros es2 E2; inversion E2; subst; constructor.
      - destruct H1 as (<- & _). exact K1.
      - apply IH. assumption. }
    rewrite (smap_of_pairs_distinct es2 Hdist).
    exists (SMap es2). split; [reflexivity|].
    destruct (Forall2_perm_l _ _ _ (Permutation_sym Pe) es2 E2) as (es3 & P3 & E3).
    apply (eq_map es es2 es3 P3).
    clear - E3. induction E3 as [|p q l1 l2 (_ & H1 & H2) _ IH]; constructor; auto.
  Qed.

  (* serialize_f32 widens, the f32 visitor narrows; in between a NaN may have changed its payload *)
  Lemma rts_f32 b b' : (b < 2 ^ 32)%N -> f64_eq (canon_nan (widen32 b)) b' -> f32_eq b (narrow32 b').
  Proof.
    intros Hb [<-|[Hn1 Hn2]]; [apply f32_roundtrip, Hb|].
    right. split; [|apply narrow32_nan, Hn2].
    destruct (is_nan64 (widen32 b)) eqn:En; [rewrite widen32_is_nan in En; exact En|].
    rewrite (canon_nan_not_nan _ En) in Hn1. congruence.
  Qed.

  Theorem family_roundtrip : forall t, RTS t.
  Proof.
    induction t using ty_ind2 with (Q := RTSV); unfold RTS, RTSV, rt_val in *.
    - intros v Hty Hs x y Hser He. destruct v; simpl in Hty; try discriminate Hty. rewrite f_bool in Hser. injection Hser as <-.
      rewrite (tr_bool E _ _ He), d_bool. eexists; split; [reflexivity|constructor].
    - intros v Hty Hs x y Hser He. destruct v; simpl in Hty; try discriminate Hty. rewrite f_int_eq in Hser.
      destruct (int_ok w z x Hty Hser) as (-> & Dz). rewrite (tr_int E _ _ He), d_int, Dz. eexists; split; [reflexivity|constructor].
    - intros v Hty Hs x y Hser He. destruct w; destruct v; simpl in Hty; try discriminate Hty.
      + rewrite f_f32 in Hser. injection Hser as <-. destruct (tr_float E _ _ He) as (b' & -> & Hb).
        rewrite d_f32. eexists; split; [reflexivity|]. constructor. apply rts_f32; [apply N.ltb_lt, Hty|exact Hb].
      + rewrite f_f64 in Hser. injection Hser as <-. destruct (tr_float E _ _ He) as (b' & -> & Hb).
        rewrite d_f64. eexists; split; [reflexivity|]. constructor. eapply f64_eq_trans; [apply f64_roundtrip|exact Hb].
    - intros v Hty Hs x y Hser He. destruct v; simpl in Hty; try discriminate Hty. rewrite f_char in Hser. injection Hser as <-.
      rewrite (tr_str E _ _ He), d_char, (de_char_encode c Hty). eexists; split; [reflexivity|constructor].
    - intros v Hty Hs x y Hser He. destruct v; simpl in Hty; try discriminate Hty. rewrite f_str in Hser. injection Hser as <-.
      rewrite (tr_str E _ _ He), d_str. eexists; split; [reflexivity|constructor].
    - (* TDatetime: through the tunnel on both sides *)
      intros v Hty Hs x y Hser He. destruct v; simpl in Hty; try discriminate Hty. rewrite f_dt in Hser.
      apply andb_true_iff in Hty as [Hr Hk]. rewrite (ser_datetime_ok d x Hr Hser) in He.
      rewrite (tr_dt E _ _ He), d_dt. unfold de_dt_str. rewrite (print_parse_std d Hr). simpl. unfold dt_kind_check. rewrite Hk.
      eexists; split; [reflexivity|constructor].
    - intros v Hty Hs x y Hser. destruct v; simpl in Hty; try discriminate Hty. rewrite f_unit in Hser. discriminate Hser.
    - intros v Hty Hs x y Hser. destruct v; simpl in Hty; try discriminate Hty. rewrite f_unit_struct in Hser. discriminate Hser.
    - intros v Hty Hs x y Hser He. destruct v; simpl in Hty; try discriminate Hty; [rewrite f_none in Hser; discriminate Hser|].
      rewrite f_some in Hser.
      destruct (IHt v Hty) with (x := x) (y := y) as (v' & Dv & Ev); [intros e U; apply (Hs e), u_some, U|exact Hser|exact He|].
      rewrite d_opt, Dv. eexists; split; [reflexivity|constructor; exact Ev].
    - intros v Hty Hs x y Hser He. destruct v; try (simpl in Hty; discriminate Hty).
      rewrite f_seq in Hser. rewrite ht_seq in Hty. apply rmap_ok in Hser as (xs & Hxs & ->).
      destruct (tr_arr E _ _ He) as (ys & -> & Fy).
      destruct (rt_list ser de (tr E) t vs) with (xs := xs) (ys := ys) as (vs' & Dv & Ev); [|exact Hxs|exact Fy|].
      { rewrite forallb_forall in Hty. apply Forall_forall. intros a Ha x0 y0 Hx0. apply (IHt a (Hty a Ha)) with (x := x0); [|exact Hx0].
        intros e U. apply (Hs e). eapply u_seq; eassumption. }
      rewrite d_seq, Dv. eexists; split; [reflexivity|constructor; exact Ev].
    - intros v Hty Hs x y Hser He. destruct v; try (simpl in Hty; discriminate Hty).
      rewrite f_tuple in Hser. rewrite ht_tuple in Hty. apply rmap_ok in Hser as (xs & Hxs & ->).
      destruct (tr_arr E _ _ He) as (ys & -> & Fy).
      destruct (rt_tuple ser de (tr E) ts vs) with (xs := xs) (ys := ys) as (_ & vs' & Dv & Ev); [|exact Hxs|exact Fy|].
      { apply (rts_tuple ts vs H Hty). intros i t v H1 H2 e U. apply (Hs e). eapply u_tuple; eassumption. }
      rewrite (d_tuple D ts ys vs' Dv). eexists; split; [reflexivity|constructor; exact Ev].
    - apply rts_map. exact IHt2.
    - intros v Hty Hs x y Hser He. destruct v; try (simpl in Hty; discriminate Hty).
      rewrite ht_struct in Hty. apply andb_true_iff in Hty as [Hty Hvs]. apply andb_true_iff in Hty as [Hpriv Hnd].
      apply negb_true_iff in Hpriv. rewrite (f_struct F n fs vs Hpriv) in Hser. apply rmap_ok in Hser as (ps & Hps & ->).
      destruct (rts_struct_table fs vs ps y H Hnd Hvs) as (es & -> & _ & vs' & Dv & Ev); [|exact Hps|exact He|].
      { intros i f t v e H1 H2 U. apply (Hs e). eapply u_struct; eassumption. }
      rewrite (d_struct D n fs _ Hpriv), Dv. eexists; split; [reflexivity|constructor; exact Ev].
    - intros v Hty Hs x y Hser He. destruct v; try (simpl in Hty; discriminate Hty).
      rewrite f_newtype in Hser. rewrite ht_newtype in Hty.
      destruct (IHt v Hty) with (x := x) (y := y) as (v' & Dv & Ev); [intros e U; apply (Hs e), u_newtype, U|exact Hser|exact He|].
      rewrite d_newtype, Dv. eexists; split; [reflexivity|constructor; exact Ev].
    - intros v Hty Hs x y Hser He. destruct v; try (simpl in Hty; discriminate Hty).
      rewrite f_tuple_struct in Hser. rewrite ht_tuple_struct in Hty. apply rmap_ok in Hser as (xs & Hxs & ->).
      destruct (tr_arr E _ _ He) as (ys & -> & Fy).
      destruct (rt_tuple ser de (tr E) ts vs) with (xs := xs) (ys := ys) as (_ & vs' & Dv & Ev); [|exact Hxs|exact Fy|].
      { apply (rts_tuple ts vs H Hty). intros i t v H1 H2 e U. apply (Hs e). eapply u_tuple_struct; eassumption. }
      rewrite (d_tuple_struct D n ts ys vs' Dv). eexists; split; [reflexivity|constructor; exact Ev].
    - intros v Hty Hs x y Hser He. destruct v as [| | | | | | | | | | | | | |i p]; try (simpl in Hty; discriminate Hty).
      rewrite ht_enum in Hty. apply andb_true_iff in Hty as [Hnd Hp]. apply nodup_bytes_NoDup in Hnd.
      rewrite f_enum in Hser.
      destruct (pick_cases (variant_of payload p) (Err EBadCase) vs i) as [([vn var] & Hn & E0)|[_ E0]]; rewrite E0 in Hser; [|discriminate].
      rewrite (pick_nth _ _ _ _ _ Hn) in Hp. simpl in Hp.
      assert (HQ : var <> VUnit -> forall q x0 y0, has_type_variant_b var q = true -> (forall e, ~ unsupported_variant var q e) ->
                               payload var q = Ok x0 -> tr E x0 y0 -> exists q', d_payload D var y0 = Ok q' /\ sval_eq q q').
      { rewrite Forall_forall in H. apply (H (vn, var)). eapply nth_error_In; exact Hn. }
      assert (Hsv : forall e, ~ unsupported_variant var p e).
      { intros e U. apply (Hs e). eapply u_variant; eassumption. }
      unfold variant_of in Hser. simpl in Hser.
      destruct var as [|tv|tsv|fsv];
        [apply htv_unit in Hp; subst p; injection Hser as <-;
         rewrite (tr_str E _ _ He), d_enum_str, (find_name_nth _ _ _ _ _ _ _ Hnd Hn); eexists; split; [reflexivity|constructor; constructor]| | |];
        apply rmap_ok in Hser as (x0 & Hx0 & ->); destruct (tr_one E _ _ _ He) as (y0 & -> & He0);
        destruct (HQ ltac:(discriminate) p x0 y0 Hp Hsv Hx0 He0) as (p' & Dp & Ep);
        rewrite d_enum_tab, (find_name_nth _ _ _ _ _ _ _ Hnd Hn), Dp; (eexists; split; [reflexivity|constructor; exact Ep]).
    - intros Hne. contradiction.
    - intros _ p x y Hty Hs Hser He. rewrite fp_newtype in Hser. rewrite htv_newtype in Hty.
      rewrite dpl_newtype. apply (IHt p Hty) with (x := x); [|exact Hser|exact He]. intros e U. apply (Hs e), uv_newtype, U.
    - intros _ p x y Hty Hs Hser He. destruct p; try (simpl in Hty; discriminate Hty).
      rewrite fp_tuple in Hser. rewrite htv_tuple in Hty. apply rmap_ok in Hser as (xs & Hxs & ->).
      destruct (tr_arr E _ _ He) as (ys & -> & Fy).
      destruct (rt_tuple ser de (tr E) ts vs) with (xs := xs) (ys := ys) as (Hl & vs' & Dv & Ev); [|exact Hxs|exact Fy|].
      { apply (rts_tuple ts vs H Hty). intros i t v H1 H2 e U. apply (Hs e). eapply uv_tuple; eassumption. }
      rewrite (dpl_tuple D ts ys vs' Hl Dv). eexists; split; [reflexivity|constructor; exact Ev].
    - intros _ p x y Hty Hs Hser He. destruct p; try (simpl in Hty; discriminate Hty).
      rewrite htv_struct in Hty. apply andb_true_iff in Hty as [Hnd Hvs].
      rewrite fp_struct in Hser. apply rmap_ok in Hser as (ps & Hps & ->).
      destruct (rts_struct_table fs vs ps y H Hnd Hvs) as (es & -> & Hk & vs' & Dv & Ev); [|exact Hps|exact He|].
      { intros i f t v e H1 H2 U. apply (Hs e). eapply uv_struct; eassumption. }
      rewrite (dpl_struct D fs _ Hk), Dv. eexists; split; [reflexivity|constructor; exact Ev].
  Qed.
End RoundTrip.
