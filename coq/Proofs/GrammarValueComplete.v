(* Proofs/GrammarValueComplete.v — C01/C02 layer L2, values, from the grammar's side: on the text
   of a `val` of the grammar (Spec/Syntax.v val_tok) followed by a continuation that can follow a
   value (vfollow), the outcome of `value_` is determined.  If the value is well-defined
   (aval_ok: its inline tables obey the definition rules) and within the implementation limits
   (within: nesting, i64, binary64) it is accepted with exactly that text and a tree value
   carrying the data it denotes; otherwise `value_` fails WITH COMMITMENT (Cut), so the enclosing
   ordered choices and `separated` loops cannot recover by another reading.  In particular the
   grammar is unambiguous.  One lemma per construct of value.rs / array.rs / inline_table.rs says
   what the parser does on the text of that construct; induction on the fuel (= a bound on the
   text length); inside an array / inline table, induction on the derivation of array-values /
   inline-table-keyvals, following winnow's `separated` (reset before the separator when the
   element after it fails softly: `[1, 2, ]`). *)
From TV Require Import Base.Prelude Base.Winnow Gen.Consts Spec.Abnf Spec.Lex Spec.Syntax.
From TV Require Import Model.Trivia Model.Datetime Model.Numbers Model.Tree Model.Parse.
From TV Require Import Proofs.NoPanicBase Proofs.NoPanicValue Proofs.NumbersRT_Value.
From TV Require Import Proofs.DepthBase Proofs.DefsEquivInline.
From TV Require Import Proofs.LexEquivBase Proofs.LexEquivTrivia Proofs.LexEquivInt Proofs.LexEquivFloat
                       Proofs.LexEquivDatetime
                       Proofs.LexEquivKey Proofs.GrammarSep Proofs.GrammarValueBase
                       Proofs.GrammarValueTok.
From TV Require Import Proofs.DocumentOps.
Require Import Lia ZifyBool ZifyN ZifyNat.

(* ---- first bytes of values ------------------------------------------------------------------------ *)
Definition vhead (b : byte) : Prop :=
  b = x22 \/ b = x27 \/ b = x74 \/ b = x66 \/ b = x5b \/ b = x7b \/ num_start b = true \/ b = x69 \/ b = x6e.

Lemma float_tok_start t f : float_tok t f -> exists c tl, t = c :: tl /\ (num_start c = true \/ c = x69 \/ c = x6e).
Proof.
  intro H. inversion H as [sg neg ip ipd ex e Hs Hu He|sg neg ip ipd fr frd Hs Hu Hfr|sg neg ip ipd fr frd ex e Hs Hu Hfr He|sg neg Hs|sg neg Hs];
    subst.
  1-3: edestruct (dec_float_start sg neg ip ipd) as (c & tl' & E & Hc); [exact Hs|exact Hu|]; exists c, tl'; split; [exact E|auto].
  - destruct (sign_cases sg neg Hs) as [-> | [-> | ->]]; cbn [app]; eexists _, _; split; try reflexivity; auto.
  - destruct (sign_cases sg neg Hs) as [-> | [-> | ->]]; cbn [app]; eexists _, _; split; try reflexivity; auto.
Qed.

(* a decimal float starts like a number (not with the i / n of inf / nan) *)
Lemma fdec_tok_start t neg m e : float_tok t (FDec neg m e) -> exists c tl, t = c :: tl /\ num_start c = true.
Proof.
  intro H. inversion H as [sg ng ip ipd ex e0 Hs Hu He|sg ng ip ipd fr frd Hs Hu Hfr|sg ng ip ipd fr frd ex e0 Hs Hu Hfr He| |]; subst;
    apply (dec_float_start sg neg ip ipd _ Hs Hu).
Qed.

Lemma val_tok_head t a : val_tok t a -> exists b t', t = b :: t' /\ vhead b.
Proof.
  unfold vhead. intros [t0 s H|t0 b H|w Hw|vs l w Hv Hw|w Hw|w1 kvs l w2 H1 H2 H3|t0 d H|t0 f H|t0 z H].
  - destruct (string_tok_head _ _ H) as (t' & [-> | ->]); eexists _, _; split; try reflexivity; auto.
  - destruct H as [[-> _] | [-> _]]; eexists _, _; split; try reflexivity; auto.
  - eexists _, _; split; [reflexivity|]. auto 10.
  - eexists _, _; split; [reflexivity|]. auto 10.
  - eexists _, _; split; [reflexivity|]. auto 10.
  - eexists _, _; split; [reflexivity|]. auto 10.
  - destruct (date_time_tok_head _ _ H) as (b & t' & -> & Hb). exists b, t'. split; [reflexivity|].
    do 6 right. left. apply digit_num_start, Hb.
  - destruct (float_tok_start _ _ H) as (c & tl & -> & Hc). exists c, tl. split; [reflexivity|].
    destruct Hc as [Hc | [-> | ->]]; auto 10.
  - destruct (integer_tok_start _ _ H) as (c & tl & -> & Hc). exists c, tl. split; [reflexivity|]. auto 10.
Qed.

Lemma num_start_bytes b : num_start b = true -> (48 <= b2n b <= 57)%N \/ b = x2b \/ b = x2d.
Proof.
  unfold num_start, NumbersRT_Lex.is_sign. intro H. apply orb_true_iff in H as [H | H].
  - left. unfold is_digit in H. lia.
  - apply orb_true_iff in H as [H | H]; apply byte_eqb_eq in H; auto.
Qed.

Lemma vhead_facts b : vhead b ->
  wschar b = false /\ b <> x23 /\ b <> x0a /\ b <> x0d /\ b <> x5d /\ b <> x2c /\ b <> x7d.
Proof.
  intros [-> | [-> | [-> | [-> | [-> | [-> | [H | [-> | ->]]]]]]]]; try (repeat split; discriminate).
  destruct (num_start_bytes b H) as [Hd | [-> | ->]]; try (repeat split; discriminate).
  split; [cls; lia|]. repeat split; intros ->; cbn in Hd; lia.
Qed.

Lemma vhead_wscn_stop b tl : vhead b -> wscn_stop (b :: tl).
Proof. intro H. destruct (vhead_facts b H) as (H1 & H2 & H3 & H4 & _). cbn [wscn_stop]. auto. Qed.

Lemma wscn_tok_head w : wscn_tok w -> w = [] \/ exists b tl, w = b :: tl /\ (wschar b = true \/ b = x23 \/ b = x0a \/ b = x0d).
Proof.
  intros [|b t Hb _|c nl t Hc Hn _]; [auto| |]; right.
  - exists b, t. auto.
  - destruct Hc as [-> | (u & -> & _)].
    + destruct (newline_tok_head nl Hn) as (b & tl & -> & Hb). exists b, (tl ++ t). split; [reflexivity|]. tauto.
    + eexists _, _. split; [reflexivity|]. auto.
Qed.

(* what follows an array element and its trailing trivia: "," or "]" *)
Definition asep_stop (r : bytes) : Prop := exists b tl, r = b :: tl /\ (b = x2c \/ b = x5d).
(* ... an inline-table pair and its trailing whitespace: "," or "}" *)
Definition isep_stop (r : bytes) : Prop := exists b tl, r = b :: tl /\ (b = x2c \/ b = x7d).

Lemma asep_wscn_stop r : asep_stop r -> wscn_stop r.
Proof. intros (b & tl & -> & [-> | ->]); cbn [wscn_stop]; repeat split; discriminate. Qed.
Lemma asep_vstop r : asep_stop r -> vstop r.
Proof. intros (b & tl & -> & [-> | ->]); cbn [vstop]; auto 10. Qed.
Lemma isep_vstop r : isep_stop r -> vstop r.
Proof. intros (b & tl & -> & [-> | ->]); cbn [vstop]; auto 10. Qed.
Lemma isep_stops_ws r : isep_stop r -> stops wschar r.
Proof. intros (b & tl & -> & [-> | ->]); reflexivity. Qed.

Lemma asep_comma r : asep_stop (x2c :: r).
Proof. exists x2c, r. auto. Qed.
Lemma asep_close r : asep_stop (x5d :: r).
Proof. exists x5d, r. auto. Qed.
Lemma isep_comma r : isep_stop (x2c :: r).
Proof. exists x2c, r. auto. Qed.
Lemma isep_close r : isep_stop (x7d :: r).
Proof. exists x7d, r. auto. Qed.

(* ---- check_recursion ---------------------------------------------------------------------------------- *)
Lemma check_recursion_complete {A} (p : parser A) i a t :
  S (depth i) < LIMIT -> p (set_depth (S (depth i)) i) = Ok a (adv t (set_depth (S (depth i)) i)) ->
  check_recursion p i = Ok a (adv t i).
Proof.
  intros Hlim E. unfold check_recursion. cbv zeta. cbn [set_depth depth].
  destruct (Nat.leb LIMIT (S (depth i))) eqn:Q; [apply Nat.leb_le in Q; lia|].
  rewrite E. destruct i as [s p0 d0]. reflexivity.
Qed.

Lemma check_recursion_cuts {A} (p : parser A) i : cuts p (set_depth (S (depth i)) i) -> cuts (check_recursion p) i.
Proof.
  intros (e & j & F). unfold cuts, check_recursion. cbv zeta. destruct (Nat.leb LIMIT _); [eauto|]. rewrite F. eauto.
Qed.

Lemma check_recursion_limit {A} (p : parser A) i : LIMIT <= S (depth i) -> cuts (check_recursion p) i.
Proof. intro H. destruct (check_recursion_refuses p i H) as (j & E). unfold cuts. eauto. Qed.

Lemma span_ws_complete i w r : rest i = w ++ r -> ws_tok w -> stops wschar r ->
  span_ ws i = Ok (pos i, pos (adv w i)) (adv w i).
Proof. intros H Hw Hr. apply (span_ok _ _ w). apply (ws_complete i w r H Hw Hr). Qed.

Lemma span_wscn_complete i w r : wscn_tok w -> rest i = w ++ r -> wscn_stop r ->
  span_ ws_comment_newline i = Ok (pos i, pos (adv w i)) (adv w i).
Proof. intros Hw H Hr. apply (span_ok _ _ tt). apply (wscn_complete i w r Hw H Hr). Qed.

(* ---- well-defined and within the limits, at nesting d ------------------------------------------------ *)
Definition vgoodb (d : nat) (a : aval) : bool := aval_ok a && within d a.

Lemma vgoodb_true d a : vgoodb d a = true -> aval_ok a = true /\ within d a = true.
Proof. unfold vgoodb. intro H. apply andb_true_iff in H. exact H. Qed.

Lemma vrel_good d v a : vrel d v a -> vgoodb d a = true.
Proof. intros (_ & H1 & H2 & _). unfold vgoodb. rewrite H1, H2. reflexivity. Qed.

Lemma forallb_andb {A} (f g : A -> bool) l : forallb (fun x => f x && g x) l = forallb f l && forallb g l.
Proof.
  induction l as [|x l IH]; [reflexivity|]. cbn [forallb]. rewrite IH.
  destruct (f x), (g x), (forallb f l); reflexivity.
Qed.

Lemma vgoodb_array d l : vgoodb d (AArr l) = Nat.ltb (S d) LIMIT && forallb (vgoodb (S d)) l.
Proof.
  unfold vgoodb. cbn [aval_ok within]. rewrite forallb_andb.
  destruct (Nat.ltb (S d) LIMIT), (forallb aval_ok l); reflexivity.
Qed.

(* a pair that the element parser of an inline table reads: short enough key path, good value *)
Definition pgoodb (d : nat) (pa : list bytes * aval) : bool :=
  Nat.ltb (length (fst pa)) LIMIT && vgoodb d (snd pa).

Lemma vgoodb_inline_pairs d kvs : vgoodb d (AInl kvs) = true -> forallb (pgoodb (S d)) kvs = true.
Proof.
  intro H. apply vgoodb_true in H as [Hok Hwi]. cbn [within aval_ok] in Hok, Hwi.
  apply andb_true_iff in Hwi as [_ Hwi]. apply andb_true_iff in Hok as [Hok _].
  rewrite forallb_forall in Hwi, Hok. apply forallb_forall. intros pa Hin. specialize (Hwi pa Hin). specialize (Hok pa Hin).
  apply andb_true_iff in Hwi as [Hl Hw]. apply Nat.ltb_lt in Hl. unfold pgoodb, vgoodb. rewrite Hok, Hw.
  assert (Hp : Nat.ltb (length (fst pa)) LIMIT = true) by (apply Nat.ltb_lt; lia). rewrite Hp. reflexivity.
Qed.

(* ---- the statement ------------------------------------------------------------------------------------- *)
(* on texts shorter than n, p does what the grammar says *)
Definition vdet_at (n : nat) (p : parser value) : Prop :=
  forall t a i r, length t < n -> val_tok t a -> rest i = t ++ r -> vfollow r ->
    if vgoodb (depth i) a then exists v, p i = Ok v (adv t i) /\ vrel (depth i) v a else cuts p i.

Definition vclose (p : parser value) : Prop :=
  forall j b tl, rest j = b :: tl -> b = x5d \/ b = x2c \/ b = x7d -> fails p j.

Lemma val_tok_arr_head t l : val_tok t (AArr l) -> exists t', t = x5b :: t'.
Proof. intro H. inversion H; subst; eexists; reflexivity. Qed.
Lemma val_tok_inl_head t kvs : val_tok t (AInl kvs) -> exists t', t = x7b :: t'.
Proof. intro H. inversion H; subst; eexists; reflexivity. Qed.

(* array-values does not start with "]" *)
Lemma array_values_not_close vs l tl : array_values_tok vs l -> exists b tl', vs ++ tl = b :: tl' /\ b <> x5d.
Proof.
  assert (G : forall w1 t a u, wscn_tok w1 -> val_tok t a -> exists b tl', (w1 ++ t ++ u) ++ tl = b :: tl' /\ b <> x5d).
  { intros w1 t a u Hw1 Ht. destruct (val_tok_head t a Ht) as (b & t' & -> & Hb).
    destruct (wscn_tok_head _ Hw1) as [-> | (b0 & tl0 & -> & Hb0)].
    - exists b, ((t' ++ u) ++ tl). split; [reflexivity|]. apply (vhead_facts b Hb).
    - exists b0, ((tl0 ++ (b :: t') ++ u) ++ tl). split; [reflexivity|].
      destruct Hb0 as [Hb0 | [-> | [-> | ->]]]; try discriminate. intros ->. discriminate. }
  intros [w1 t a w2 c Hw1 Ht _ _|w1 t a w2 u l1 Hw1 Ht _ _]; apply (G w1 t a _ Hw1 Ht).
Qed.

Section Det.
  Variable vr : parser value.
  Variable n : nat.
  Hypothesis Hvr : vdet_at n vr.
  Hypothesis Hclose : vclose vr.
  Hypothesis Hmono : mono vr.
  Hypothesis Hg : valP Vg vr.

  (* ---- arrays ---------------------------------------------------------------------------------- *)
  Lemma array_value_det j w1 t a w2 r :
    wscn_tok w1 -> val_tok t a -> length t < n -> wscn_tok w2 -> rest j = w1 ++ t ++ w2 ++ r -> asep_stop r ->
    if vgoodb (depth j) a
    then exists it, array_value vr j = Ok it (adv (w1 ++ t ++ w2) j) /\ irel (depth j) it a
    else cuts (array_value vr) j.
  Proof.
    intros Hw1 Ht Hlen Hw2 H Hr. unfold array_value.
    destruct (val_tok_head t a Ht) as (b & t' & E & Hb).
    assert (S1 : wscn_stop (t ++ w2 ++ r)) by (rewrite E; apply vhead_wscn_stop, Hb).
    pose proof (span_wscn_complete j w1 _ Hw1 H S1) as Epre.
    pose proof (Hvr t a (adv w1 j) (w2 ++ r) Hlen Ht (rest_adv w1 _ j H) (vfollow_wscn_stop_after w2 r Hw2 (asep_vstop r Hr))) as Hv.
    change (depth (adv w1 j)) with (depth j) in Hv.
    destruct (vgoodb (depth j) a).
    2:{ eapply cuts_bind_ok; [exact Epre|]. apply cuts_bind, Hv. }
    destruct Hv as (v & Ev & Hv). rewrite (bind_ok _ _ _ _ _ Epre), (bind_ok _ _ _ _ _ Ev), adv_adv.
    assert (R2 : rest (adv (w1 ++ t) j) = w2 ++ r) by (apply rest_adv; rewrite H, <- app_assoc; reflexivity).
    rewrite (bind_ok _ _ _ _ _ (span_wscn_complete _ w2 r Hw2 R2 (asep_wscn_stop r Hr))).
    rewrite adv_adv, <- app_assoc. eexists. split; [reflexivity|]. eexists. split; [reflexivity|]. apply vrel_decorate, Hv.
  Qed.

  (* an element parser in front of "]" (after optional trivia) fails softly *)
  Lemma array_value_fails j w tl : wscn_tok w -> rest j = w ++ x5d :: tl -> fails (array_value vr) j.
  Proof.
    intros Hw H. unfold array_value. eapply bind_ok_fails.
    - apply (span_wscn_complete j w _ Hw H). cbn [wscn_stop]. repeat split; discriminate.
    - apply bind_fails. apply (Hclose _ x5d tl (rest_adv w _ j H)). auto.
  Qed.

  Definition comma_p : parser bool :=
    pmap (fun o : option byte => match o with Some _ => true | None => false end) (opt (byte_ ARRAY_SEP)).

  Lemma comma_none j : fails (byte_ ARRAY_SEP) j -> comma_p j = Ok false j.
  Proof. intro F. unfold comma_p. rewrite (pmap_ok _ _ _ None _ (opt_fails _ _ F)). reflexivity. Qed.
  Lemma comma_some j x j' : byte_ ARRAY_SEP j = Ok x j' -> comma_p j = Ok true j'.
  Proof. intro E. unfold comma_p. rewrite (pmap_ok _ _ _ (Some x) _ (opt_ok _ _ _ _ E)). reflexivity. Qed.

  (* an element is refused with commitment, at the head of the list or inside the loop *)
  Definition elem_bad (j : input) : Prop :=
    cuts (array_value vr) j
    \/ exists it j1, array_value vr j = Ok it j1 /\ seps_cut (array_value vr) (byte_ ARRAY_SEP) j1.

  Lemma array_values_det vs l : array_values_tok vs l -> forall j w r,
    length vs < n -> wscn_tok w -> rest j = vs ++ w ++ [x5d] ++ r ->
    if forallb (vgoodb (depth j)) l
    then exists it j1 items j2 comma j3 tr,
           array_value vr j = Ok it j1 /\ seps (array_value vr) (byte_ ARRAY_SEP) j1 items j2
           /\ comma_p j2 = Ok comma j3 /\ span_ ws_comment_newline j3 = Ok tr (adv (vs ++ w) j)
           /\ Forall2 (irel (depth j)) (it :: items) l
    else elem_bad j.
  Proof.
    induction 1 as [w1 t a w2 c Hw1 Ht Hw2 Hc|w1 t a w2 u l Hw1 Ht Hw2 Hu IH]; intros j w r Hlen Hw H; cbn [forallb].
    - rewrite andb_true_r.
      assert (Lt : length t < n) by (rewrite !app_length in Hlen; lia).
      destruct Hc as [-> | ->].
      + (* no trailing comma: the element takes all the trivia up to "]" *)
        assert (H' : rest j = w1 ++ t ++ (w2 ++ w) ++ [x5d] ++ r) by (rewrite H, <- !app_assoc; reflexivity).
        pose proof (array_value_det j w1 t a (w2 ++ w) _ Hw1 Ht Lt (wscn_app _ _ Hw2 Hw) H' (asep_close r)) as Hd.
        destruct (vgoodb (depth j) a); [|left; exact Hd]. destruct Hd as (it & Ei & Hit).
        set (j1 := adv (w1 ++ t ++ w2 ++ w) j) in *.
        assert (R1 : rest j1 = x5d :: r) by (apply rest_adv; rewrite H', <- !app_assoc; reflexivity).
        exists it, j1, [], j1, false, j1, (pos j1, pos (adv [] j1)). split; [exact Ei|]. split; [|split; [|split]].
        * apply seps_stop_sep, byte_fails. rewrite R1. reflexivity.
        * apply comma_none, byte_fails. rewrite R1. reflexivity.
        * replace (adv ((w1 ++ t ++ w2 ++ []) ++ w) j) with (adv [] j1).
          -- apply (span_wscn_complete j1 [] _ wscn_nil R1). cbn [wscn_stop]. repeat split; discriminate.
          -- unfold j1. rewrite adv_adv. f_equal. rewrite app_nil_r, <- !app_assoc. reflexivity.
        * constructor; [exact Hit|constructor].
      + (* trailing comma: the loop gives it back, opt(',') takes it *)
        assert (H' : rest j = w1 ++ t ++ w2 ++ [x2c] ++ w ++ [x5d] ++ r) by (rewrite H, <- !app_assoc; reflexivity).
        pose proof (array_value_det j w1 t a w2 _ Hw1 Ht Lt Hw2 H' (asep_comma _)) as Hd.
        destruct (vgoodb (depth j) a); [|left; exact Hd]. destruct Hd as (it & Ei & Hit).
        set (j1 := adv (w1 ++ t ++ w2) j) in *.
        assert (R1 : rest j1 = x2c :: w ++ [x5d] ++ r) by (apply rest_adv; rewrite H', <- !app_assoc; reflexivity).
        pose proof (byte_ok ARRAY_SEP j1 _ R1) as Esep.
        assert (R2 : rest (adv [ARRAY_SEP] j1) = w ++ x5d :: r) by (apply (rest_adv [x2c]); exact R1).
        exists it, j1, [], j1, true, (adv [ARRAY_SEP] j1), (pos (adv [ARRAY_SEP] j1), pos (adv w (adv [ARRAY_SEP] j1))).
        split; [exact Ei|]. split; [|split; [|split]].
        * eapply seps_stop_elem; [exact Esep| |apply (array_value_fails _ w r Hw R2)].
          rewrite R2, R1. cbn [length app]. rewrite !app_length. cbn [length]. lia.
        * apply (comma_some _ _ _ Esep).
        * replace (adv ((w1 ++ t ++ w2 ++ [x2c]) ++ w) j) with (adv w (adv [ARRAY_SEP] j1)).
          -- apply (span_wscn_complete _ w _ Hw R2). cbn [wscn_stop]. repeat split; discriminate.
          -- unfold j1. rewrite !adv_adv. f_equal. rewrite <- !app_assoc. reflexivity.
        * constructor; [exact Hit|constructor].
    - assert (Lt : length t < n) by (rewrite !app_length in Hlen; lia).
      assert (Lu : length u < n) by (rewrite !app_length in Hlen; lia).
      assert (H' : rest j = w1 ++ t ++ w2 ++ [x2c] ++ u ++ w ++ [x5d] ++ r) by (rewrite H, <- !app_assoc; reflexivity).
      pose proof (array_value_det j w1 t a w2 _ Hw1 Ht Lt Hw2 H' (asep_comma _)) as Hd.
      destruct (vgoodb (depth j) a); cbn [andb]; [|left; exact Hd]. destruct Hd as (it & Ei & Hit).
      set (j1 := adv (w1 ++ t ++ w2) j) in *.
      assert (R1 : rest j1 = x2c :: u ++ w ++ [x5d] ++ r) by (apply rest_adv; rewrite H', <- !app_assoc; reflexivity).
      pose proof (byte_ok ARRAY_SEP j1 _ R1) as Esep.
      assert (R2 : rest (adv [ARRAY_SEP] j1) = u ++ w ++ [x5d] ++ r) by (apply (rest_adv [x2c]); exact R1).
      assert (Ll : length (rest (adv [ARRAY_SEP] j1)) < length (rest j1)) by (rewrite R2, R1; cbn [length]; lia).
      pose proof (IH (adv [ARRAY_SEP] j1) w r Lu Hw R2) as Hrest.
      change (depth (adv [ARRAY_SEP] j1)) with (depth j) in Hrest.
      destruct (forallb (vgoodb (depth j)) l).
      + destruct Hrest as (it' & k1 & items & k2 & comma & k3 & tr & Ei' & R & Ec & Et & HF).
        exists it, j1, (it' :: items), k2, comma, k3, tr. split; [exact Ei|]. split; [|split; [exact Ec|split]].
        * eapply seps_cons; [exact Esep|exact Ll|exact Ei'| |exact R].
          apply (ext_len _ _ _ (array_value_mono vr Hmono _ _ _ Ei')).
        * replace (adv ((w1 ++ t ++ w2 ++ [x2c] ++ u) ++ w) j) with (adv (u ++ w) (adv [ARRAY_SEP] j1)); [exact Et|].
          unfold j1. rewrite !adv_adv. f_equal. rewrite <- !app_assoc. reflexivity.
        * constructor; [exact Hit|exact HF].
      + right. exists it, j1. split; [exact Ei|].
        destruct Hrest as [Hc | (it' & k1 & Ei' & Hs)].
        * eapply sc_elem; [exact Esep|exact Ll|exact Hc].
        * eapply sc_next; [exact Esep|exact Ll|exact Ei'| |exact Hs].
          apply (ext_len _ _ _ (array_value_mono vr Hmono _ _ _ Ei')).
  Qed.

  Lemma array_det t l : val_tok t (AArr l) -> forall i r,
    length t < S n -> rest i = t ++ r ->
    if forallb (vgoodb (depth i)) l
    then exists items tr c dec sp,
           array vr i = Ok (VArray items tr c dec sp) (adv t i) /\ Forall2 (irel (depth i)) items l
    else cuts (array vr) i.
  Proof.
    intros Hv i r Hlen H. unfold array.
    inversion Hv as [| |w Hw E1 E2|vs l0 w Hvs Hw E1 E2| | | | |]; subst.
    - (* [ trivia ] *)
      cbn [forallb].
      assert (R0 : rest i = x5b :: w ++ [x5d] ++ r) by (rewrite H, <- !app_assoc; reflexivity).
      rewrite (bind_ok _ _ _ _ _ (byte_ok ARRAY_OPEN i _ R0)).
      set (j := adv [ARRAY_OPEN] i). assert (R1 : rest j = w ++ x5d :: r) by (apply (rest_adv [x5b]); exact R0).
      assert (Ev : exists tr, array_values vr j = Ok (VArray [] tr false decor_default None) (adv w j)).
      { unfold array_values. destruct w as [|b w'].
        - cbn [app] in R1. rewrite (bind_ok _ _ _ _ _ (peek_ok _ _ _ _ (opt_ok _ _ _ _ (byte_ok ARRAY_CLOSE j _ R1)))).
          rewrite adv_nil. eexists. reflexivity.
        - assert (Hb : b <> x5d).
          { destruct (wscn_tok_head _ Hw) as [E | (b0 & tl & E & Hb0)]; [discriminate|]. injection E as <- <-.
            destruct Hb0 as [Hb0 | [-> | [-> | ->]]]; try discriminate. intros ->. discriminate. }
          assert (F : fails (byte_ ARRAY_CLOSE) j).
          { apply byte_fails. rewrite R1. cbn [app stops]. apply byte_eqb_neq. intro E. apply Hb. symmetry. exact E. }
          rewrite (bind_ok _ _ _ _ _ (peek_ok _ _ _ _ (opt_fails _ _ F))).
          rewrite (bind_ok _ _ _ _ _ (separated0_nil _ _ _ (array_value_fails j (b :: w') r Hw R1))).
          cbv iota beta. rewrite (bind_ok _ _ _ _ _ (eq_refl : ret false j = Ok false j)).
          assert (Sw : wscn_stop (x5d :: r)) by (cbn [wscn_stop]; repeat split; discriminate).
          rewrite (bind_ok _ _ _ _ _ (span_wscn_complete j (b :: w') _ Hw R1 Sw)). eexists. reflexivity. }
      destruct Ev as (tr & Ev). rewrite (bind_ok _ _ _ _ _ (cut_err_ok _ _ _ _ Ev)).
      assert (R2 : rest (adv w j) = x5d :: r) by (apply rest_adv; exact R1).
      rewrite (bind_ok _ _ _ _ _ (context_ok _ _ _ _ (cut_err_ok _ _ _ _ (byte_ok ARRAY_CLOSE _ _ R2)))).
      unfold j. rewrite !adv_adv. exists [], tr, false, decor_default, None. split; [reflexivity|constructor].
    - (* [ values trivia ] *)
      assert (R0 : rest i = x5b :: vs ++ w ++ [x5d] ++ r) by (rewrite H, <- !app_assoc; reflexivity).
      pose proof (byte_ok ARRAY_OPEN i _ R0) as Eopen.
      set (j := adv [ARRAY_OPEN] i) in *.
      assert (R1 : rest j = vs ++ w ++ [x5d] ++ r) by (apply (rest_adv [x5b]); exact R0).
      assert (Lv : length vs < n) by (rewrite !app_length in Hlen; cbn [length] in Hlen; lia).
      assert (F : fails (byte_ ARRAY_CLOSE) j).
      { apply byte_fails. rewrite R1. destruct (array_values_not_close vs l (w ++ [x5d] ++ r) Hvs) as (b & tl & -> & Hb).
        cbn [stops]. apply byte_eqb_neq. intro E. apply Hb. symmetry. exact E. }
      pose proof (peek_ok _ _ _ _ (opt_fails _ _ F)) as Epk.
      pose proof (array_values_det vs l Hvs j w r Lv Hw R1) as Hd.
      change (depth j) with (depth i) in Hd.
      destruct (forallb (vgoodb (depth i)) l).
      + destruct Hd as (it & j1 & items & j2 & comma & j3 & tr & Ei & R & Ec & Et & HF).
        assert (Ev : array_values vr j = Ok (VArray (it :: items) (raw_with_span tr) comma decor_default None) (adv (vs ++ w) j)).
        { unfold array_values. rewrite (bind_ok _ _ _ _ _ Epk).
          rewrite (bind_ok _ _ _ _ _ (separated0_cons _ _ _ _ _ _ _ Ei R)).
          cbv iota beta. fold comma_p. rewrite (bind_ok _ _ _ _ _ Ec). rewrite (bind_ok _ _ _ _ _ Et). reflexivity. }
        rewrite (bind_ok _ _ _ _ _ Eopen), (bind_ok _ _ _ _ _ (cut_err_ok _ _ _ _ Ev)).
        assert (R2 : rest (adv (vs ++ w) j) = x5d :: r) by (apply rest_adv; rewrite R1, <- app_assoc; reflexivity).
        rewrite (bind_ok _ _ _ _ _ (context_ok _ _ _ _ (cut_err_ok _ _ _ _ (byte_ok ARRAY_CLOSE _ _ R2)))).
        unfold j. rewrite !adv_adv. exists (it :: items), (raw_with_span tr), comma, decor_default, None.
        split; [rewrite <- !app_assoc; reflexivity|exact HF].
      + eapply cuts_bind_ok; [exact Eopen|]. apply cuts_bind, cuts_cut_err. unfold array_values.
        eapply cuts_bind_ok; [exact Epk|]. cbv iota beta. apply cuts_bind.
        destruct Hd as [Hc | (it & j1 & Ei & Hs)]; [apply separated0_cuts_first, Hc|apply (separated0_cuts_loop _ _ _ _ _ Ei Hs)].
  Qed.

  (* ---- inline tables ------------------------------------------------------------------------------ *)
  (* too long a key path makes `key` fail softly in front of the pair (the loop then stops in front
     of something that is not "}"); a bad value commits *)
  Lemma inline_keyval_det j w0 kt p w1 w2 t a w3 r :
    ws_tok w0 -> key_tok kt p -> ws_tok w1 -> ws_tok w2 -> val_tok t a -> length t < n -> ws_tok w3 ->
    rest j = w0 ++ (kt ++ w1 ++ [x3d] ++ w2 ++ t) ++ w3 ++ r -> isep_stop r ->
    if Nat.ltb (length p) LIMIT
    then if vgoodb (depth j) a
         then exists pr, inline_keyval vr j = Ok pr (adv (w0 ++ (kt ++ w1 ++ [x3d] ++ w2 ++ t) ++ w3) j)
                         /\ prel (depth j) pr (p, a)
         else cuts (inline_keyval vr) j
    else fails (inline_keyval vr) j /\ exists b tl, rest j = w0 ++ b :: tl /\ wschar b = false /\ b <> x7d.
  Proof.
    intros Hw0 Hkt Hw1 Hw2 Ht Lt Hw3 H Hr.
    assert (H1 : rest j = w0 ++ kt ++ w1 ++ (x3d :: w2 ++ t ++ w3 ++ r)) by (rewrite H, <- !app_assoc; reflexivity).
    assert (Hks : key_stop (x3d :: w2 ++ t ++ w3 ++ r)) by (eexists _, _; split; [reflexivity|auto]).
    destruct (Nat.ltb (length p) LIMIT) eqn:Lp; [apply Nat.ltb_lt in Lp|apply Nat.ltb_ge in Lp].
    2:{ split.
        - destruct (key_too_long j w0 kt p w1 _ Hw0 Hkt Hw1 H1 Hks Lp) as (k & Ek).
          unfold fails. rewrite inline_keyval_eq. apply bind_fails. exists (err_of RecursionLimit), k. exact Ek.
        - destruct (key_tok_head kt p Hkt) as (b & t' & -> & Hbw & _ & _ & Hb5).
          exists b, (t' ++ w1 ++ x3d :: w2 ++ t ++ w3 ++ r). split; [rewrite H1; reflexivity|]. split; [exact Hbw|].
          destruct (key_khead _ _ Hkt) as (b' & t'' & E' & Hk). injection E' as <- _.
          destruct Hk as [-> | [-> | Hu]]; try discriminate. intros ->. discriminate Hu. }
    destruct (key_complete j w0 kt p w1 _ Hw0 Hkt Hw1 H1 Hks Lp) as (kp & Ek & Hkp).
    set (j1 := adv (w0 ++ kt ++ w1) j) in *.
    assert (R1 : rest j1 = x3d :: w2 ++ t ++ w3 ++ r) by (apply rest_adv; rewrite H1, <- !app_assoc; reflexivity).
    assert (R2 : rest (adv [KEYVAL_SEP] j1) = w2 ++ t ++ w3 ++ r) by (apply (rest_adv [x3d]); exact R1).
    destruct (val_tok_head t a Ht) as (b & t' & E & Hb).
    assert (S2 : stops wschar (t ++ w3 ++ r)) by (rewrite E; apply (vhead_facts b Hb)).
    assert (R3 : rest (adv w2 (adv [KEYVAL_SEP] j1)) = t ++ w3 ++ r) by (apply rest_adv; exact R2).
    pose proof (context_ok _ _ _ _ (byte_ok KEYVAL_SEP j1 _ R1)) as Esep.
    pose proof (span_ws_complete _ w2 _ R2 Hw2 S2) as Epre.
    pose proof (Hvr t a _ (w3 ++ r) Lt Ht R3 (vfollow_ws w3 r Hw3 (vstop_follow r (isep_vstop r Hr)))) as Hv.
    change (depth (adv w2 (adv [KEYVAL_SEP] j1))) with (depth j) in Hv.
    destruct (vgoodb (depth j) a).
    2:{ unfold cuts. rewrite inline_keyval_eq. eapply cuts_bind_ok; [exact Ek|]. apply cuts_bind. unfold inline_kv_rhs.
        apply cuts_cut_err. eapply cuts_bind_ok; [exact Esep|]. eapply cuts_bind_ok; [exact Epre|]. apply cuts_bind, Hv. }
    destruct Hv as (v & Ev & Hv).
    assert (R4 : rest (adv t (adv w2 (adv [KEYVAL_SEP] j1))) = w3 ++ r) by (apply rest_adv; exact R3).
    assert (Erhs : exists pre suf, inline_kv_rhs vr j1 = Ok (pre, v, suf) (adv ([x3d] ++ w2 ++ t ++ w3) j1)).
    { eexists _, _. unfold inline_kv_rhs. apply cut_err_ok.
      rewrite (bind_ok _ _ _ _ _ Esep), (bind_ok _ _ _ _ _ Epre), (bind_ok _ _ _ _ _ Ev).
      rewrite (bind_ok _ _ _ _ _ (span_ws_complete _ w3 r R4 Hw3 (isep_stops_ws r Hr))).
      rewrite !adv_adv. unfold ret. f_equal. f_equal. rewrite <- !app_assoc. reflexivity. }
    destruct Erhs as (pre & suf & Erhs).
    rewrite inline_keyval_eq, (bind_ok _ _ _ _ _ Ek), (bind_ok _ _ _ _ _ Erhs). cbv beta iota.
    assert (Hne : kp <> []) by (intros ->; apply (key_tok_nonempty _ _ Hkt); rewrite <- Hkp; reflexivity).
    destruct (pop_key_nonempty kp Hne) as (path & k & Ep). rewrite Ep.
    eexists. split.
    - unfold ret, j1. rewrite adv_adv. f_equal. f_equal. rewrite <- !app_assoc. reflexivity.
    - split; cbn [fst snd].
      + rewrite <- Hkp. apply (pop_key_keys _ _ _ Ep).
      + eexists. split; [reflexivity|]. apply vrel_decorate. exact Hv.
  Qed.

  Lemma inline_keyval_fails j w tl : ws_tok w -> rest j = w ++ x7d :: tl -> fails (inline_keyval vr) j.
  Proof.
    intros Hw H. unfold fails. rewrite inline_keyval_eq. apply bind_fails.
    apply (key_fails j w x7d tl Hw H); try reflexivity; discriminate.
  Qed.

  (* a pair is refused with commitment, or softly in front of something that is not "}", or the loop
     commits, or it stops in front of a "," *)
  Definition ibad (w0 : bytes) (j : input) : Prop :=
    cuts (inline_keyval vr) j
    \/ (fails (inline_keyval vr) j /\ exists b tl, rest j = w0 ++ b :: tl /\ wschar b = false /\ b <> x7d)
    \/ (exists pr j1, inline_keyval vr j = Ok pr j1
          /\ (seps_cut (inline_keyval vr) (byte_ INLINE_TABLE_SEP) j1
              \/ exists prs j2 tl, seps (inline_keyval vr) (byte_ INLINE_TABLE_SEP) j1 prs j2 /\ rest j2 = x2c :: tl)).

  Lemma inline_keyvals_det kvs l : inline_keyvals_tok kvs l -> forall j w0 w3 r,
    ws_tok w0 -> ws_tok w3 -> length kvs < n -> rest j = w0 ++ kvs ++ w3 ++ [x7d] ++ r ->
    if forallb (pgoodb (depth j)) l
    then exists pr j1 prs, inline_keyval vr j = Ok pr j1
           /\ seps (inline_keyval vr) (byte_ INLINE_TABLE_SEP) j1 prs (adv (w0 ++ kvs ++ w3) j)
           /\ Forall2 (prel (depth j)) (pr :: prs) l
    else ibad w0 j.
  Proof.
    induction 1 as [kt p w1 w2 t a Hkt Hw1 Hw2 Ht|kt p w1 w2 t a w3' w4 u l Hkt Hw1 Hw2 Ht Hw3' Hw4 Hu IH];
      intros j w0 w3 r Hw0 Hw3 Hlen H; cbn [forallb]; unfold pgoodb at 1; cbn [fst snd].
    - rewrite andb_true_r.
      assert (Lt : length t < n) by (rewrite !app_length in Hlen; lia).
      assert (H' : rest j = w0 ++ (kt ++ w1 ++ [x3d] ++ w2 ++ t) ++ w3 ++ x7d :: r) by (rewrite H, <- !app_assoc; reflexivity).
      pose proof (inline_keyval_det j w0 kt p w1 w2 t a w3 _ Hw0 Hkt Hw1 Hw2 Ht Lt Hw3 H' (isep_close r)) as Hd.
      destruct (Nat.ltb (length p) LIMIT); cbn [andb]; [|right; left; exact Hd].
      destruct (vgoodb (depth j) a); [|left; exact Hd]. destruct Hd as (pr & Ep & Hpr).
      eexists pr, _, []. split; [exact Ep|]. split; [|constructor; [exact Hpr|constructor]].
      apply seps_stop_sep, byte_fails. rewrite (rest_adv _ (x7d :: r) j); [reflexivity|].
      rewrite H', <- !app_assoc. reflexivity.
    - assert (Lt : length t < n) by (rewrite !app_length in Hlen; lia).
      assert (Lu : length u < n) by (rewrite !app_length in Hlen; lia).
      assert (H' : rest j = w0 ++ (kt ++ w1 ++ [x3d] ++ w2 ++ t) ++ w3' ++ x2c :: w4 ++ u ++ w3 ++ [x7d] ++ r)
        by (rewrite H, <- !app_assoc; reflexivity).
      pose proof (inline_keyval_det j w0 kt p w1 w2 t a w3' _ Hw0 Hkt Hw1 Hw2 Ht Lt Hw3' H' (isep_comma _)) as Hd.
      destruct (Nat.ltb (length p) LIMIT); cbn [andb]; [|right; left; exact Hd].
      destruct (vgoodb (depth j) a); cbn [andb]; [|left; exact Hd]. destruct Hd as (pr & Ep & Hpr).
      set (j1 := adv (w0 ++ (kt ++ w1 ++ [x3d] ++ w2 ++ t) ++ w3') j) in *.
      assert (R1 : rest j1 = x2c :: w4 ++ u ++ w3 ++ [x7d] ++ r) by (apply rest_adv; rewrite H', <- !app_assoc; reflexivity).
      pose proof (byte_ok INLINE_TABLE_SEP j1 _ R1) as Esep.
      assert (R2 : rest (adv [INLINE_TABLE_SEP] j1) = w4 ++ u ++ w3 ++ [x7d] ++ r) by (apply (rest_adv [x2c]); exact R1).
      assert (Ll : length (rest (adv [INLINE_TABLE_SEP] j1)) < length (rest j1)) by (rewrite R2, R1; cbn [length]; lia).
      pose proof (IH (adv [INLINE_TABLE_SEP] j1) w4 w3 r Hw4 Hw3 Lu R2) as Hrest.
      change (depth (adv [INLINE_TABLE_SEP] j1)) with (depth j) in Hrest.
      destruct (forallb (pgoodb (depth j)) l).
      + destruct Hrest as (pr' & k1 & prs & Ep' & R & HF).
        exists pr, j1, (pr' :: prs). split; [exact Ep|]. split; [|constructor; [exact Hpr|exact HF]].
        eapply seps_cons; [exact Esep|exact Ll|exact Ep'| |].
        * apply (ext_len _ _ _ (inline_keyval_mono vr Hmono _ _ _ Ep')).
        * replace (adv (w0 ++ (kt ++ w1 ++ [x3d] ++ w2 ++ t ++ w3' ++ [x2c] ++ w4 ++ u) ++ w3) j)
            with (adv (w4 ++ u ++ w3) (adv [INLINE_TABLE_SEP] j1)); [exact R|].
          unfold j1. rewrite !adv_adv. f_equal. rewrite <- !app_assoc. reflexivity.
      + right. right. exists pr, j1. split; [exact Ep|].
        destruct Hrest as [Hc | [[Hf _] | (pr' & k1 & Ep' & Hs)]].
        * left. eapply sc_elem; [exact Esep|exact Ll|exact Hc].
        * right. exists [], j1, (w4 ++ u ++ w3 ++ [x7d] ++ r). split; [|exact R1].
          eapply seps_stop_elem; [exact Esep|exact Ll|exact Hf].
        * pose proof (ext_len _ _ _ (inline_keyval_mono vr Hmono _ _ _ Ep')) as Le.
          destruct Hs as [Hs | (prs & j2 & tl & Hs & R)].
          -- left. eapply sc_next; [exact Esep|exact Ll|exact Ep'|exact Le|exact Hs].
          -- right. exists (pr' :: prs), j2, tl. split; [|exact R].
             eapply seps_cons; [exact Esep|exact Ll|exact Ep'|exact Le|exact Hs].
  Qed.

  (* the pairs loop then either commits to a failure or stops in front of something that is not "}" *)
  Lemma inline_kvs_bad w0 j : ws_tok w0 -> ibad w0 j ->
    cuts (inline_kvs vr) j
    \/ exists prs pre j2 b tl, inline_kvs vr j = Ok (prs, pre) j2 /\ rest j2 = b :: tl /\ b <> x7d.
  Proof.
    intros Hw0 [Hc | [[Hf (b & tl & R & Hbw & Hb)] | (pr & j1 & Ep & Hs)]]; unfold inline_kvs.
    - left. apply cuts_bind, separated0_cuts_first, Hc.
    - right. rewrite (bind_ok _ _ _ _ _ (separated0_nil _ _ _ Hf)).
      rewrite (bind_ok _ _ _ _ _ (span_ws_complete j w0 _ R Hw0 Hbw)). eexists _, _, _, b, tl.
      split; [reflexivity|]. split; [apply (rest_adv w0 _ j R)|exact Hb].
    - destruct Hs as [Hs | (prs & j2 & tl & Hs & R)].
      + left. apply cuts_bind, (separated0_cuts_loop _ _ _ _ _ Ep Hs).
      + right. rewrite (bind_ok _ _ _ _ _ (separated0_cons _ _ _ _ _ _ _ Ep Hs)).
        assert (R' : rest j2 = [] ++ x2c :: tl) by exact R.
        rewrite (bind_ok _ _ _ _ _ (span_ws_complete j2 [] _ R' eq_refl eq_refl)). rewrite adv_nil.
        eexists _, _, _, x2c, tl. split; [reflexivity|]. split; [exact R|discriminate].
  Qed.

  Lemma close_cuts j b tl : rest j = b :: tl -> b <> x7d -> cuts (context (cut_err (byte_ INLINE_TABLE_CLOSE))) j.
  Proof.
    intros R Hb. apply cuts_context, cuts_cut_err_fails, byte_fails. rewrite R. cbn [stops].
    apply byte_eqb_neq. intro E. apply Hb. symmetry. exact E.
  Qed.

  (* table_from_pairs does not panic on parsed pairs *)
  Lemma inline_body_after j pairs pre j2 :
    inline_kvs vr j = Ok (pairs, pre) j2 ->
    (exists v, inline_body vr j = Ok v j2 /\ table_from_pairs pairs pre = TmOk v) \/ fails (inline_body vr) j.
  Proof.
    intro E. pose proof (inline_kvs_val vr Hg _ _ _ E) as Hp. cbn [fst] in Hp.
    pose proof (table_from_pairs_ok pairs pre Hp) as Hno. unfold inline_body.
    destruct (table_from_pairs pairs pre) as [v|c|s] eqn:Et; [|right|contradiction].
    - left. exists v. split; [|reflexivity]. apply (try_map_ok _ _ _ (pairs, pre) v _ E Et).
    - apply (fails_try_map_err _ _ _ (pairs, pre) _ c E Et).
  Qed.

  (* inline_table after its "{" *)
  Definition inline_rest : parser value :=
    t0 <- cut_err (inline_body vr) ;; context (cut_err (byte_ INLINE_TABLE_CLOSE)) ;;; ret t0.

  (* whatever the pairs loop returns, the rest follows table_from_pairs and the "}" *)
  Lemma inline_rest_after j pairs pre j2 : inline_kvs vr j = Ok (pairs, pre) j2 ->
    (forall v, table_from_pairs pairs pre = TmOk v -> cuts (context (cut_err (byte_ INLINE_TABLE_CLOSE))) j2) ->
    cuts inline_rest j.
  Proof.
    intros Ek Hclose'. unfold inline_rest. destruct (inline_body_after j pairs pre j2 Ek) as [(v & Eb & Etm) | Hf].
    - eapply cuts_bind_ok; [apply (cut_err_ok _ _ _ _ Eb)|]. apply cuts_bind, (Hclose' v Etm).
    - apply cuts_bind, cuts_cut_err_fails, Hf.
  Qed.

  (* all pairs are read: the outcome is that of table_from_pairs, which builds the table exactly
     when the pairs define one within the limits (Proofs/GrammarValueBase.v) *)
  Lemma inline_rest_read j body r pairs pre kvs d0 :
    rest j = body ++ x7d :: r -> inline_kvs vr j = Ok (pairs, pre) (adv body j) ->
    Forall2 (prel (S d0)) pairs kvs -> S d0 < LIMIT ->
    if vgoodb d0 (AInl kvs)
    then exists v, inline_rest j = Ok v (adv (body ++ [x7d]) j) /\ vrel d0 v (AInl kvs)
    else cuts inline_rest j.
  Proof.
    intros R1 Ek HF Hlim. destruct (prel_ipairs _ _ _ HF) as (l & -> & Hl).
    destruct (vgoodb d0 (AInl kvs)) eqn:G.
    - destruct (vgoodb_true _ _ G) as [Hok Hwi].
      destruct (inline_bridge_complete (S d0) l kvs Hl d0 pre eq_refl Hok Hwi) as (v & Etm).
      exists v. split; [|apply (inline_bridge_sound (S d0) l kvs Hl d0 pre v eq_refl Hlim Etm)].
      assert (Eb : inline_body vr j = Ok v (adv body j)) by apply (try_map_ok _ _ _ (to_pairs l, pre) v _ Ek Etm).
      unfold inline_rest. rewrite (bind_ok _ _ _ _ _ (cut_err_ok _ _ _ _ Eb)).
      assert (R2 : rest (adv body j) = x7d :: r) by (apply rest_adv; exact R1).
      rewrite (bind_ok _ _ _ _ _ (context_ok _ _ _ _ (cut_err_ok _ _ _ _ (byte_ok INLINE_TABLE_CLOSE _ _ R2)))).
      rewrite adv_adv. reflexivity.
    - apply (inline_rest_after _ _ _ _ Ek). intros v Etm. exfalso.
      rewrite (vrel_good _ _ _ (inline_bridge_sound (S d0) l kvs Hl d0 pre v eq_refl Hlim Etm)) in G. discriminate.
  Qed.

  Lemma inline_table_det t kvs : val_tok t (AInl kvs) -> forall i r d0,
    length t < S n -> rest i = t ++ r -> depth i = S d0 -> S d0 < LIMIT ->
    if vgoodb d0 (AInl kvs)
    then exists v, inline_table vr i = Ok v (adv t i) /\ vrel d0 v (AInl kvs)
    else cuts (inline_table vr) i.
  Proof.
    intros Hv i r d0 Hlen H Hd Hlim. unfold cuts. rewrite inline_table_eq. fold inline_rest.
    inversion Hv as [| | | |w Hw E1 E2|w1 kvt l w2 Hw1 Hkv Hw2 E1 E2| | |]; subst.
    - (* { ws } *)
      assert (R0 : rest i = x7b :: w ++ [x7d] ++ r) by (rewrite H, <- !app_assoc; reflexivity).
      rewrite (bind_ok _ _ _ _ _ (byte_ok INLINE_TABLE_OPEN i _ R0)).
      set (j := adv [INLINE_TABLE_OPEN] i). assert (R1 : rest j = w ++ x7d :: r) by (apply (rest_adv [x7b]); exact R0).
      replace (adv ([x7b] ++ w ++ [x7d]) i) with (adv (w ++ [x7d]) j) by (unfold j; rewrite adv_adv; reflexivity).
      eapply (inline_rest_read j w r [] _ [] d0 R1); [|constructor|exact Hlim].
      unfold inline_kvs. rewrite (bind_ok _ _ _ _ _ (separated0_nil _ _ _ (inline_keyval_fails j w r Hw R1))).
      assert (Sw : stops wschar (x7d :: r)) by reflexivity.
      rewrite (bind_ok _ _ _ _ _ (span_ws_complete j w _ R1 Hw Sw)). reflexivity.
    - (* { pairs } *)
      assert (R0 : rest i = x7b :: w1 ++ kvt ++ w2 ++ [x7d] ++ r) by (rewrite H, <- !app_assoc; reflexivity).
      rewrite (bind_ok _ _ _ _ _ (byte_ok INLINE_TABLE_OPEN i _ R0)).
      set (j := adv [INLINE_TABLE_OPEN] i).
      assert (R1 : rest j = w1 ++ kvt ++ w2 ++ [x7d] ++ r) by (apply (rest_adv [x7b]); exact R0).
      assert (Lk : length kvt < n) by (rewrite !app_length in Hlen; cbn [length] in Hlen; lia).
      pose proof (inline_keyvals_det kvt kvs Hkv j w1 w2 r Hw1 Hw2 Lk R1) as Hd'.
      change (depth j) with (depth i) in Hd'. rewrite Hd in Hd'.
      destruct (forallb (pgoodb (S d0)) kvs) eqn:Gp.
      + (* every pair is read *)
        destruct Hd' as (pr & j1 & prs & Ep & R & HF).
        assert (R1' : rest j = (w1 ++ kvt ++ w2) ++ x7d :: r) by (rewrite R1, <- !app_assoc; reflexivity).
        replace (adv ([x7b] ++ w1 ++ kvt ++ w2 ++ [x7d]) i) with (adv ((w1 ++ kvt ++ w2) ++ [x7d]) j)
          by (unfold j; rewrite adv_adv; f_equal; rewrite <- !app_assoc; reflexivity).
        eapply (inline_rest_read j _ r (pr :: prs) _ kvs d0 R1'); [|exact HF|exact Hlim].
        unfold inline_kvs. rewrite (bind_ok _ _ _ _ _ (separated0_cons _ _ _ _ _ _ _ Ep R)).
        assert (R2 : rest (adv (w1 ++ kvt ++ w2) j) = [] ++ x7d :: r) by (apply rest_adv; exact R1').
        rewrite (bind_ok _ _ _ _ _ (span_ws_complete _ [] _ R2 eq_refl eq_refl)). rewrite adv_nil. reflexivity.
      + (* some pair is not read: the value is not good, and the loop or the "}" commits *)
        destruct (vgoodb d0 (AInl kvs)) eqn:G; [rewrite (vgoodb_inline_pairs _ _ G) in Gp; discriminate|].
        destruct (inline_kvs_bad w1 j Hw1 Hd') as [Hc | (prs & pre & j2 & b & tl & Ek & R & Hb')].
        * unfold inline_rest. apply cuts_bind, cuts_cut_err. unfold inline_body. apply cuts_try_map, Hc.
        * apply (inline_rest_after _ _ _ _ Ek). intros v _. apply (close_cuts j2 b tl R Hb').
  Qed.

  (* ---- the dispatch ------------------------------------------------------------------------------------ *)
  Lemma number_arm_cut_int i : fails date_time i -> fails float i -> cuts integer i -> cuts number_arm i.
  Proof.
    intros F1 F2 Hc. unfold number_arm. apply cuts_alt_r; [apply pmap_fails, F1|].
    apply cuts_alt_r; [apply pmap_fails, F2|]. apply cuts_pmap, Hc.
  Qed.
  Lemma number_arm_cut_float i : fails date_time i -> cuts float i -> cuts number_arm i.
  Proof.
    intros F1 Hc. unfold number_arm. apply cuts_alt_r; [apply pmap_fails, F1|]. apply cuts_alt_l, cuts_pmap, Hc.
  Qed.

  Lemma array_arm_det t l i r : val_tok t (AArr l) -> length t < S n -> rest i = t ++ r ->
    if vgoodb (depth i) (AArr l)
    then exists v, value_body vr i = Ok v (adv t i) /\ vrel (depth i) v (AArr l)
    else cuts (value_body vr) i.
  Proof.
    intros Ht Hlen H. destruct (val_tok_arr_head t l Ht) as (t' & Et).
    assert (R0 : rest i = x5b :: t' ++ r) by (rewrite H, Et; reflexivity).
    unfold cuts. rewrite (value_body_arm vr i x5b _ R0). change (value_arm vr x5b) with (check_recursion (array vr)).
    rewrite vgoodb_array.
    destruct (Nat.ltb (S (depth i)) LIMIT) eqn:Q; cbn [andb];
      [apply Nat.ltb_lt in Q|apply Nat.ltb_ge in Q; apply check_recursion_limit, Q].
    pose proof (array_det t l Ht (set_depth (S (depth i)) i) r Hlen H) as Hd. cbn [set_depth depth] in Hd.
    destruct (forallb (vgoodb (S (depth i))) l).
    - destruct Hd as (items & tr & c & dec & sp & Ea & HF).
      eexists. split; [apply (check_recursion_complete _ _ _ _ Q Ea)|]. apply vrel_array; assumption.
    - apply check_recursion_cuts, Hd.
  Qed.

  Lemma inline_arm_det t kvs i r : val_tok t (AInl kvs) -> length t < S n -> rest i = t ++ r ->
    if vgoodb (depth i) (AInl kvs)
    then exists v, value_body vr i = Ok v (adv t i) /\ vrel (depth i) v (AInl kvs)
    else cuts (value_body vr) i.
  Proof.
    intros Ht Hlen H. destruct (val_tok_inl_head t kvs Ht) as (t' & Et).
    assert (R0 : rest i = x7b :: t' ++ r) by (rewrite H, Et; reflexivity).
    unfold cuts. rewrite (value_body_arm vr i x7b _ R0). change (value_arm vr x7b) with (check_recursion (inline_table vr)).
    destruct (Nat.ltb (S (depth i)) LIMIT) eqn:Q; [apply Nat.ltb_lt in Q|].
    2:{ assert (G : vgoodb (depth i) (AInl kvs) = false) by (unfold vgoodb; cbn [within]; rewrite Q, andb_false_r; reflexivity).
        rewrite G. apply Nat.ltb_ge in Q. apply check_recursion_limit, Q. }
    pose proof (inline_table_det t kvs Ht (set_depth (S (depth i)) i) r (depth i) Hlen H eq_refl Q) as Hd.
    destruct (vgoodb (depth i) (AInl kvs)).
    - destruct Hd as (v & Ev & Hv). exists v. split; [apply (check_recursion_complete _ _ _ _ Q Ev)|exact Hv].
    - apply check_recursion_cuts, Hd.
  Qed.

  Lemma value_body_det : vdet_at (S n) (value_body vr).
  Proof.
    intros t a i r Hlen Ht H Hr. pose proof Ht as Ht0.
    destruct Ht as [t s Hs|t b Hb|w Hw|vs l w Hvs Hw|w Hw|w1 kvs l w2 Hw1 Hkv Hw2|t d Hd|t f Hf|t z Hz].
    3,4: apply (array_arm_det _ _ i r Ht0 Hlen H).
    3,4: apply (inline_arm_det _ _ i r Ht0 Hlen H).
    - exists (scalar_value (SString s)). split; [apply (value_body_string vr i t s r Hs H Hr)|]. apply vrel_scalar; auto.
    - exists (scalar_value (SBool b)). split; [apply (value_body_boolean vr i t b r Hb H)|]. apply vrel_scalar; auto.
    - exists (scalar_value (SDatetime d)). split; [apply (value_body_date_time vr i t d r Hd H Hr)|]. apply vrel_scalar; auto.
    - (* a float is refused exactly at or above the overflow boundary of binary64 *)
      unfold vgoodb. cbn [aval_ok andb]. destruct (within (depth i) (AFloat f)) eqn:Hwi.
      + assert (Hfin : finite f).
        { destruct f as [x|x|x m e]; try exact I. cbn [within] in Hwi. cbn [finite]. destruct (overflows m e); [discriminate|reflexivity]. }
        exists (scalar_value (SFloat f)). split; [apply (value_body_float vr i t f r Hf Hfin H Hr)|]. apply vrel_scalar; auto.
      + destruct f as [x|x|neg m e]; try discriminate Hwi. cbn [within] in Hwi. apply negb_false_iff in Hwi.
        destruct (float_overflow i t neg m e r Hf Hwi H (vfollow_us_digit r Hr) (vfollow_is_e r Hr)) as (er & j & Ec).
        destruct (fdec_tok_start t neg m e Hf) as (c & tl & E & Hn).
        pose proof H as H'. rewrite E in H'. unfold cuts. rewrite (value_body_number vr i c _ H' Hn).
        apply number_arm_cut_float; [apply (date_time_fails_float i t _ r Hf H)|]. exists er, j. exact Ec.
    - (* an integer is refused exactly outside i64 *)
      unfold vgoodb. cbn [aval_ok within andb]. destruct (in_i64 z) eqn:Hz64.
      + exists (scalar_value (SInt z)). split; [apply (value_body_integer vr i t z r Hz Hz64 H Hr)|]. apply vrel_scalar; auto.
      + destruct (integer_tok_start t z Hz) as (c & tl & E & Hc). pose proof H as H'. rewrite E in H'.
        unfold cuts. rewrite (value_body_number vr i c _ H' Hc).
        apply number_arm_cut_int; [apply (date_time_fails_int i t z r Hz H Hr)|apply (float_fails_int i t z r Hz H Hr)|].
        exists (err_of IntError), i. apply (integer_out_of_range i t z r Hz Hz64 H), vfollow_unquoted, Hr.
  Qed.

  Lemma value_step_det : vdet_at (S n) (value_step vr).
  Proof.
    intros t a i r Hlen Ht H Hr. pose proof (value_body_det t a i r Hlen Ht H Hr) as Hd.
    destruct (vgoodb (depth i) a).
    - destruct Hd as (v & Ev & Hv). exists (apply_raw v (pos i, pos (adv t i))). split; [|apply vrel_apply_raw, Hv].
      unfold value_step. rewrite (pmap_ok _ _ _ _ _ (with_span_ok _ _ _ _ Ev)). reflexivity.
    - unfold value_step. apply cuts_pmap, cuts_with_span, Hd.
  Qed.

  Lemma value_step_close : vclose (value_step vr).
  Proof.
    intros j b tl H Hb. destruct (value_body_close vr j b tl H Hb) as (e & j' & F).
    unfold fails, value_step, pmap, with_span. rewrite F. eauto.
  Qed.
End Det.

Lemma value_f_det n : vdet_at n (value_f n).
Proof.
  induction n as [|n IH]; [intros t a i r Hlen; lia|].
  change (value_f (S n)) with (value_step (value_f n)).
  destruct n as [|m].
  - intros t a i r Hlen Ht. destruct (val_tok_head t a Ht) as (b & t' & -> & _). cbn [length] in Hlen. lia.
  - destruct (value_f_all (S m)) as (Hmono & _ & Hg). apply value_step_det; [exact IH| |exact Hmono|exact Hg].
    change (value_f (S m)) with (value_step (value_f m)). apply value_step_close.
Qed.

Theorem value_det t a i r : val_tok t a -> rest i = t ++ r -> vfollow r ->
  if vgoodb (depth i) a then exists v, value_ i = Ok v (adv t i) /\ vrel (depth i) v a else cuts value_ i.
Proof.
  intros Ht H Hr. assert (L : length t < S (length (rest i))) by (rewrite H, app_length; lia).
  (* `cuts` is opened first: comparing `value_` with `value_f _` as arguments of `cuts` makes the
     kernel unfold the fixpoint on both sides before it gives up *)
  unfold cuts. unfold value_. exact (value_f_det (S (length (rest i))) t a i r L Ht H Hr).
Qed.

Theorem value_complete t a i r :
  val_tok t a -> rest i = t ++ r -> vfollow r -> aval_ok a = true -> within (depth i) a = true ->
  exists v, value_ i = Ok v (adv t i) /\ vrel (depth i) v a.
Proof.
  intros Ht H Hr Hok Hwi. pose proof (value_det t a i r Ht H Hr) as Hd. unfold vgoodb in Hd. rewrite Hok, Hwi in Hd. exact Hd.
Qed.

Theorem value_reject t a i r :
  val_tok t a -> rest i = t ++ r -> vfollow r -> vgoodb (depth i) a = false -> cuts value_ i.
Proof. intros Ht H Hr Hb. pose proof (value_det t a i r Ht H Hr) as Hd. rewrite Hb in Hd. exact Hd. Qed.
