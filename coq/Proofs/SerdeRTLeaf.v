(* Proofs/SerdeRTLeaf.v — C07, leaves: chars, floats, integers, date-times read back what was written. *)
From TV Require Import Base.Prelude Base.Utf8 Model.WriteFloat Model.SerNum Spec.DatetimeSpec Spec.SerdeData Model.Ser Model.De
  Proofs.NumbersRT_Widen Proofs.NumbersRT_Ser Proofs.DatetimeEq Proofs.SerdeRTBase.
Require Import Lia ZifyBool ZifyN ZifyNat.
Ltac Zify.zify_post_hook ::= Z.div_mod_to_equations.
Local Open Scope N_scope.

(* ---- char: CharVisitor::visit_str (encode_utf8 c) = c ---- *)
(* a lead byte carrying q, continuation bytes carrying six bits each *)
Lemma decode1_two q r0 : q < 32 -> r0 < 64 ->
  utf8_decode1 [n2b (192 + q); n2b (128 + r0)] = Some (q * 64 + r0, []).
Proof.
  intros Hq H0. unfold utf8_decode1. rewrite !b2n_n2b by lia.
  replace (192 + q <? 128) with false by lia. replace (192 + q <? 224) with true by lia.
  do 2 f_equal. lia.
Qed.
Lemma decode1_three q r1 r0 : q < 16 -> r1 < 64 -> r0 < 64 ->
  utf8_decode1 [n2b (224 + q); n2b (128 + r1); n2b (128 + r0)] = Some (q * 4096 + r1 * 64 + r0, []).
Proof.
  intros Hq H1 H0. unfold utf8_decode1. rewrite !b2n_n2b by lia.
  replace (224 + q <? 128) with false by lia. replace (224 + q <? 224) with false by lia.
  replace (224 + q <? 240) with true by lia.
  do 2 f_equal. lia.
Qed.
Lemma decode1_four q r2 r1 r0 : q < 8 -> r2 < 64 -> r1 < 64 -> r0 < 64 ->
  utf8_decode1 [n2b (240 + q); n2b (128 + r2); n2b (128 + r1); n2b (128 + r0)]
  = Some (q * 262144 + r2 * 4096 + r1 * 64 + r0, []).
Proof.
  intros Hq H2 H1 H0. unfold utf8_decode1. rewrite !b2n_n2b by lia.
  replace (240 + q <? 128) with false by lia. replace (240 + q <? 224) with false by lia.
  replace (240 + q <? 240) with false by lia.
  do 2 f_equal. lia.
Qed.

Lemma peel64 c : c = c / 64 * 64 + c mod 64 /\ c mod 64 < 64.
Proof. split; [rewrite N.mul_comm; apply N.div_mod; discriminate|apply N.mod_lt; discriminate]. Qed.

(* The base-64 digits of c are named before any arithmetic is done, so that every side condition is linear
   (with the quotients left in place each `lia` call has to reason about division again, which is slow to re-check). *)
Lemma de_char_encode c : is_scalar c = true -> de_char (utf8_encode c) = Ok (SChar c).
Proof.
  unfold is_scalar. intro H. unfold de_char, utf8_encode.
  assert (Q2 : c / 64 / 64 = c / 4096) by (apply N.div_div; discriminate).
  assert (Q3 : c / 4096 / 64 = c / 262144) by (apply N.div_div; discriminate).
  destruct (peel64 c) as [E0 L0]. destruct (peel64 (c / 64)) as [E1 L1]. destruct (peel64 (c / 4096)) as [E2 L2].
  rewrite Q2 in E1. rewrite Q3 in E2. clear Q2 Q3.
  set (d0 := c mod 64) in *. set (d1 := (c / 64) mod 64) in *. set (d2 := (c / 4096) mod 64) in *.
  set (q1 := c / 64) in *. set (q2 := c / 4096) in *. set (q3 := c / 262144) in *.
  clearbody d0 d1 d2 q1 q2 q3.
  destruct (c <? 128) eqn:C1.
  - unfold utf8_decode1. rewrite b2n_n2b by lia. rewrite C1. reflexivity.
  - destruct (c <? 2048) eqn:C2; [|destruct (c <? 65536) eqn:C3].
    + rewrite decode1_two by lia. do 3 f_equal. lia.
    + rewrite decode1_three by lia. do 3 f_equal. lia.
    + rewrite decode1_four by lia. do 3 f_equal. lia.
Qed.

(* ---- floats ---- *)
Lemma is_nan64_fields B : is_nan64 B = (ex64 B =? 2047) && negb (mant64 B =? 0).
Proof. reflexivity. Qed.
Lemma is_nan32_fields b : is_nan32 b = (ex32 b =? 255) && negb (mant32 b =? 0).
Proof. reflexivity. Qed.

Lemma narrow32_fields s e m : s < 2 -> e < 2048 -> m < p52 ->
  narrow32 (s * p63 + e * p52 + m) = s * p31 + narrow_mag e m.
Proof.
  intros Hs He Hm. destruct (assemble_fields s e m Hs He Hm) as (F1 & F2 & F3).
  unfold narrow32. change (2 ^ 52) with p52. change (2 ^ 63) with p63. change (2 ^ 11) with 2048. change (2 ^ 31) with p31.
  rewrite F1, F2, F3. reflexivity.
Qed.

Lemma log2_52 M : p52 <= M -> M < 2 * p52 -> N.log2 M = 52.
Proof.
  intros H1 H2. apply N.log2_unique; [lia|]. change (2 ^ 52) with p52. change (2 ^ N.succ 52) with (2 * p52).
  split; assumption.
Qed.

(* the magnitude narrow32 computes from the fields widen32 assembled, for a non-NaN f32 *)
Lemma narrow_mag_wide b : is_nan32 b = false ->
  narrow_mag (fst (wide_fields b)) (snd (wide_fields b)) = ex32 b * p23 + mant32 b.
Proof.
  rewrite is_nan32_fields. intro Hn.
  pose proof (mant32_lt b) as Hm. pose proof (ex32_lt b) as He.
  unfold wide_fields.
  destruct (ex32 b =? 255) eqn:E1; cbn [fst snd].
  - (* infinity *)
    assert (mant32 b = 0) as -> by lia. assert (ex32 b = 255) as -> by lia. reflexivity.
  - destruct (ex32 b =? 0) eqn:E2; cbn [fst snd].
    + destruct (mant32 b =? 0) eqn:E3; cbn [fst snd].
      * assert (mant32 b = 0) as -> by lia. assert (ex32 b = 0) as -> by lia. reflexivity.
      * (* subnormal f32 *)
        assert (ex32 b = 0) as -> by lia.
        set (mt := mant32 b) in *. assert (H0 : 0 < mt) by lia.
        destruct (subnormal_fields mt H0 Hm) as [K1 K2].
        destruct (N.log2_spec mt H0) as [L1 L2]. set (k := N.log2 mt) in *.
        assert (Epow : p52 = 2 ^ k * 2 ^ (52 - k)).
        { rewrite <- N.pow_add_r. replace (k + (52 - k)) with 52 by lia. reflexivity. }
        assert (EM : 2 ^ 52 + (mt - 2 ^ k) * 2 ^ (52 - k) = mt * 2 ^ (52 - k)).
        { change (2 ^ 52) with p52. rewrite Epow at 1. rewrite N.mul_sub_distr_r. 
          assert (2 ^ k * 2 ^ (52 - k) <= mt * 2 ^ (52 - k)) by (apply N.mul_le_mono_r; exact L1). lia. }
        assert (Hpos : 2 ^ (52 - k) <> 0) by (apply N.pow_nonzero; discriminate).
        assert (HM1 : p52 <= mt * 2 ^ (52 - k)).
        { rewrite Epow. apply N.mul_le_mono_r; exact L1. }
        assert (HM2 : mt * 2 ^ (52 - k) < 2 * p52).
        { rewrite Epow. rewrite N.pow_succ_r' in L2. 
          replace (2 * (2 ^ k * 2 ^ (52 - k))) with ((2 * 2 ^ k) * 2 ^ (52 - k)) by lia.
          apply N.mul_lt_mono_pos_r; lia. }
        unfold narrow_mag.
        replace (k + 874 =? 2047) with false by lia.
        replace (k + 874 =? 0) with false by lia.
        rewrite EM.
        replace (mt * 2 ^ (52 - k) =? 0) with false by (unfold p52 in *; lia).
        rewrite (log2_52 _ HM1 HM2).
        replace (1075 + 127 <? 52 + (k + 874)) with false by lia.
        replace (52 + (k + 874) <? 1075 - 126 + 1) with true by lia.
        replace (1 + 925 - (k + 874)) with (52 - k) by lia.
        rewrite N.div_mul by exact Hpos. rewrite N.mod_mul by exact Hpos.
        assert (Hhalf : 2 ^ (52 - k - 1) <> 0) by (apply N.pow_nonzero; discriminate).
        replace (2 ^ (52 - k - 1) <? 0) with false by lia.
        replace (2 ^ (52 - k - 1) =? 0) with false by lia.
        cbn [orb andb]. unfold p23. lia.
    + (* normal f32 *)
      set (mt := mant32 b) in *. set (ex := ex32 b) in *.
      assert (HM1 : p52 <= 2 ^ 52 + mt * p29) by (unfold p52; lia).
      assert (HM2 : 2 ^ 52 + mt * p29 < 2 * p52) by (unfold p52, p29, p23 in *; lia).
      unfold narrow_mag.
      replace (ex + 896 =? 2047) with false by lia.
      replace (ex + 896 =? 0) with false by lia.
      replace (2 ^ 52 + mt * p29 =? 0) with false by (unfold p52 in *; lia).
      rewrite (log2_52 _ HM1 HM2).
      replace (1075 + 127 <? 52 + (ex + 896)) with false by lia.
      assert (Heb : (if 52 + (ex + 896) <? 1075 - 126 + 1 then 1 else 52 + (ex + 896) - (1075 - 127)) = ex).
      { destruct (52 + (ex + 896) <? 1075 - 126 + 1) eqn:E; lia. }
      rewrite Heb.
      replace (ex + 925 - (ex + 896)) with 29 by lia.
      change (2 ^ 29) with p29. change (2 ^ (29 - 1)) with 268435456.
      assert (Hq : (2 ^ 52 + mt * p29) / p29 = p23 + mt).
      { change (2 ^ 52) with (p23 * p29). rewrite <- N.mul_add_distr_r. apply N.div_mul. discriminate. }
      assert (Hr : (2 ^ 52 + mt * p29) mod p29 = 0).
      { change (2 ^ 52) with (p23 * p29). rewrite <- N.mul_add_distr_r. apply N.mod_mul. discriminate. }
      rewrite Hq, Hr. cbn [N.ltb N.eqb N.compare orb andb]. 
      replace (268435456 <? 0) with false by lia. replace (268435456 =? 0) with false by lia.
      cbn [orb andb]. clear - E2. unfold p23. lia.
Qed.

Lemma canon_nan_not_nan B : is_nan64 B = false -> canon_nan B = B.
Proof. unfold canon_nan. intros ->. reflexivity. Qed.

Lemma widen32_is_nan b : is_nan64 (widen32 b) = is_nan32 b.
Proof. pose proof (widen32_nan b) as H. rewrite classify64_nan, classify32_nan in H. exact H. Qed.

(* clearing the sign bit keeps the other two fields *)
Lemma clear_sign_fields b : ex64 (b mod 2 ^ 63) = ex64 b /\ mant64 (b mod 2 ^ 63) = mant64 b.
Proof.
  assert (H : b mod 2 ^ 63 = 0 * p63 + ex64 b * p52 + mant64 b).
  { change (2 ^ 63) with (p52 * 2048). rewrite N.mod_mul_r by discriminate. unfold ex64, mant64. ring. }
  rewrite H.
  destruct (assemble_fields 0 (ex64 b) (mant64 b)) as (A1 & A2 & _);
    [reflexivity|apply N.mod_lt; discriminate|apply N.mod_lt; discriminate|split; [exact A2|exact A1]].
Qed.

Lemma canon_nan_is_nan B : is_nan64 (canon_nan B) = is_nan64 B.
Proof.
  unfold canon_nan. destruct (is_nan64 B) eqn:E; [|exact E].
  rewrite is_nan64_fields in *. destruct (clear_sign_fields B) as [-> ->]. exact E.
Qed.

Lemma assemble32 s e m : e < 256 -> m < p23 ->
  ex32 (s * p31 + (e * p23 + m)) = e /\ mant32 (s * p31 + (e * p23 + m)) = m.
Proof. intros He Hm. unfold ex32, mant32, p31, p23 in *. split; lia. Qed.

(* `as f32` of a NaN is a NaN: exponent all ones, quiet bit set *)
Lemma narrow32_nan B : is_nan64 B = true -> is_nan32 (narrow32 B) = true.
Proof.
  rewrite is_nan64_fields, is_nan32_fields. intro H. apply andb_true_iff in H as [He Hm].
  unfold narrow32. change ((B / 2 ^ 52) mod 2 ^ 11) with (ex64 B). change (B mod 2 ^ 52) with (mant64 B).
  unfold narrow_mag. rewrite He. apply negb_true_iff in Hm. rewrite Hm.
  change (2 ^ 31) with p31. change (2 ^ 23) with p23.
  assert (Hx : (mant64 B / 2 ^ 29) mod 2 ^ 22 < 2 ^ 22) by (apply N.mod_lt; discriminate).
  set (x := (mant64 B / 2 ^ 29) mod 2 ^ 22) in *. clearbody x. change (2 ^ 22) with 4194304 in *.
  rewrite <- N.add_assoc.
  destruct (assemble32 ((B / 2 ^ 63) mod 2) 255 (4194304 + x)) as [-> ->]; [reflexivity|unfold p23; lia|].
  rewrite N.eqb_refl. apply negb_true_iff, N.eqb_neq. lia.
Qed.

(* serialize_f32 then f32's visitor (`v as f32`) *)
Theorem f32_roundtrip b : b < 2 ^ 32 -> f32_eq b (narrow32 (canon_nan (widen32 b))).
Proof.
  intro Hb. destruct (is_nan32 b) eqn:En.
  - right. split; [exact En|]. apply narrow32_nan. rewrite canon_nan_is_nan, widen32_is_nan. exact En.
  - left. rewrite canon_nan_not_nan by (rewrite widen32_is_nan; exact En).
    rewrite widen32_eq. destruct (wide_fields_bounds b) as [B1 B2].
    rewrite narrow32_fields by (try exact B1; try exact B2; apply sign32_lt).
    rewrite narrow_mag_wide by exact En.
    rewrite (decompose32 b) at 1 by exact Hb. lia.
Qed.

Theorem f64_roundtrip b : f64_eq b (canon_nan b).
Proof.
  destruct (is_nan64 b) eqn:E.
  - right. split; [exact E|rewrite canon_nan_is_nan; exact E].
  - left. symmetry. apply canon_nan_not_nan. exact E.
Qed.

(* ---- integers ---- *)
Lemma ser_int_value_ok w z x : in_ty w z = true -> ser_int_value w z = Ok x ->
  x = VInt z /\ de_int w z = Some z.
Proof.
  unfold ser_int_value. intros Hin H. destruct (ser_int w z) as [i|] eqn:E; [|discriminate].
  injection H as <-. destruct (ser_exact w z i Hin E) as [-> _]. split; [reflexivity|].
  apply de_in_range_ok; [|exact Hin]. destruct w; try reflexivity; discriminate.
Qed.

(* ---- date-times ---- *)
Lemma ser_datetime_ok d x : in_range d = true -> ser_datetime d = Ok x -> x = VDatetime d.
Proof.
  intros Hr. unfold ser_datetime, dt_field_str. rewrite (print_parse_std d Hr). simpl. congruence.
Qed.
Lemma de_datetime_ok d : in_range d = true -> de_datetime (VDatetime d) = Ok d.
Proof. intro Hr. unfold de_datetime, de_dt_str. rewrite (print_parse_std d Hr). reflexivity. Qed.
