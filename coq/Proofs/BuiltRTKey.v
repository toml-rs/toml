(* Proofs/BuiltRTKey.v — C06: the default key token inside key paths (`key`, with blanks around the
   parts, dotted paths in headers) is read back as the same key text. *)
From TV Require Import Base.Prelude Base.Utf8 Base.Winnow Gen.Consts.
From TV Require Import Model.Trivia Model.Strings Model.Datetime Model.Numbers Model.Tree Model.Parse Model.Document.
From TV Require Import Model.Write Model.Encode Model.Build.
From TV Require Import Proofs.StringsRTDefs Proofs.StringsRTBase Proofs.StringsRTBasic Proofs.StringsRTTop Proofs.StringsRTDoc.
From TV Require Import Proofs.BuiltRTBase Proofs.BuiltRTParse Proofs.ModelFacts.
Require Import Lia ZifyBool ZifyN ZifyNat.

(* what may follow a key part (after its blanks): not a blank, not a bare-key character *)
Definition kend (r : bytes) : Prop := stops (in_class WSCHAR) r /\ no_unquoted_head r.

Lemma kend_dot R : kend (x2e :: R). Proof. split; reflexivity. Qed.
Lemma kend_eq R : kend (x3d :: R). Proof. split; reflexivity. Qed.
Lemma kend_close R : kend (x5d :: R). Proof. split; reflexivity. Qed.

Lemma sp_no_unquoted b R : sp b -> no_unquoted_head R -> no_unquoted_head (b ++ R).
Proof. intros [-> | ->] H; [exact H|reflexivity]. Qed.

Lemma key_token_stops tk k R : write_key KDefault k = Some tk -> stops (in_class WSCHAR) (tk ++ R).
Proof.
  intro Hw. destruct (key_token_head k tk Hw) as (b & tk' & -> & Hb).
  destruct (key_head_facts b Hb) as [H _]. exact H.
Qed.

(* key.rs: key_part on  [blank] token [blank] *)
Lemma key_part_pto k tk a b R d :
  utf8_valid_b k = true -> write_key KDefault k = Some tk -> sp a -> sp b -> kend R ->
  pto key_part (a ++ tk ++ b) R d (fun kk => k_key kk = k).
Proof.
  intros Hu Hw Ha Hb [HR1 HR2]. unfold key_part.
  apply pto_bind with (Q1 := fun _ => True).
  { apply (pto_span _ _ _ _ (fun _ => True)). apply pto_ws; [exact Ha|].
    rewrite <- app_assoc. apply (key_token_stops tk k _ Hw). }
  intros pre _.
  apply pto_bind with (Q1 := fun x => snd x = k).
  { intro p. pose proof (key_styles_rt k KDefault tk (b ++ R) p d Hu Hw (sp_no_unquoted b R Hb HR2)) as E.
    exists (key_result tk k p), (p + N.of_nat (length tk))%N. split; [exact E|reflexivity]. }
  intros [r0 k0] Hk0. cbn [snd] in Hk0. subst k0.
  apply pto_bind_ret with (Q1 := fun _ => True).
  { apply (pto_span _ _ _ _ (fun _ => True)). apply pto_ws; assumption. }
  intros suf _. reflexivity.
Qed.

(* the decor shuffle at the end of `key` keeps the key texts *)
Lemma fix_key_path_keys path : path <> [] ->
  exists p', fix_key_path path = Some p' /\ map k_key p' = map k_key path.
Proof.
  intro Hne. destruct (fix_key_path path) as [p'|] eqn:E.
  - exists p'. split; [reflexivity|]. revert E. apply fix_key_path_map; reflexivity.
  - exfalso. unfold fix_key_path in E. destruct path as [|first tl]; [contradiction|].
    destruct (rev _) eqn:Er in E; [|discriminate E]. apply (f_equal (@length key)) in Er. rewrite rev_length in Er. discriminate.
Qed.

(* key.rs: key on a printed path  part . part . part  (blanks only as given per part) *)
Definition part_seg (x : bytes * bytes * bytes * bytes) : seg (A := key) :=      (* (k, a, tk, b) *)
  mkSeg (snd (fst (fst x)) ++ snd (fst x) ++ snd x) (fun kk => k_key kk = fst (fst (fst x))).

Definition part_ok (x : bytes * bytes * bytes * bytes) : Prop :=
  utf8_valid_b (fst (fst (fst x))) = true /\ write_key KDefault (fst (fst (fst x))) = Some (snd (fst x)) /\
  sp (snd (fst (fst x))) /\ sp (snd x).

Lemma part_seg_parses d x : part_ok x -> seg_parses key_part d kend (part_seg x).
Proof. intros (Hu & Hw & Ha & Hb) R HR. cbn [part_seg seg_txt seg_ok]. apply key_part_pto; assumption. Qed.

(* the parts are read whatever their number; `key` then counts them against the recursion limit *)
Lemma key_parts_pto d x0 l R :
  part_ok x0 -> Forall part_ok l -> kend R -> stops (byte_eqb DOT_SEP) R ->
  pto (separated1 key_part (byte_ DOT_SEP)) (seg_txt (part_seg x0) ++ segs_txt DOT_SEP (map part_seg l)) R d
      (fun res => map k_key res = map (fun x => fst (fst (fst x))) (x0 :: l)).
Proof.
  intros H0 Hl HR Hdot p.
  assert (Hsegs : Forall (seg_parses key_part d kend) (map part_seg l)).
  { clear - Hl. induction Hl; constructor; [apply part_seg_parses|]; assumption. }
  destruct (separated_segs key_part DOT_SEP d kend kend_dot _ _ _ R (separated1_ok _ _) (part_seg_parses d x0 H0) Hsegs HR
                            (loop_ends_stop _ _ _ _ Hdot) p)
    as (res & p1 & E & Hres).
  exists res, p1. rewrite <- app_assoc. split; [exact E|].
  change (part_seg x0 :: map part_seg l) with (map part_seg (x0 :: l)) in Hres.
  clear - Hres. revert res Hres. generalize (x0 :: l) as xs.
  induction xs as [|x xs IH]; intros res H; inversion H; subst; [reflexivity|].
  cbn [map]. f_equal; [assumption|apply IH; assumption].
Qed.

Lemma key_path_pto d x0 l R :
  part_ok x0 -> Forall part_ok l -> kend R -> stops (byte_eqb DOT_SEP) R -> S (length l) < LIMIT ->
  pto key_ (seg_txt (part_seg x0) ++ segs_txt DOT_SEP (map part_seg l)) R d
      (fun kp => map k_key kp = map (fun x => fst (fst (fst x))) (x0 :: l)).
Proof.
  intros H0 Hl HR Hdot Hlen p.
  destruct (key_parts_pto d x0 l R H0 Hl HR Hdot p) as (res & p1 & E & Hkeys).
  assert (Hne : res <> []) by (intro; subst; discriminate).
  destruct (fix_key_path_keys res Hne) as (p' & Ef & Ek).
  exists p', p1. split; [|congruence].
  unfold key_. rewrite (bind_ok _ _ _ res (mkIn R p1 d)); [rewrite Ef; reflexivity|].
  unfold try_map. rewrite (context_ok _ _ _ _ E).
  apply (f_equal (@length bytes)) in Hkeys. rewrite !map_length in Hkeys. cbn [length] in Hkeys.
  unfold check_depth. rewrite Hkeys, (proj2 (Nat.leb_gt _ _) Hlen). reflexivity.
Qed.

(* a path of LIMIT parts or more: `key` backtracks with the recursion-limit error *)
Lemma key_path_limit d x0 l R p :
  part_ok x0 -> Forall part_ok l -> kend R -> stops (byte_eqb DOT_SEP) R -> LIMIT <= S (length l) ->
  key_ (mkIn ((seg_txt (part_seg x0) ++ segs_txt DOT_SEP (map part_seg l)) ++ R) p d)
  = Bt (err_of RecursionLimit) (mkIn ((seg_txt (part_seg x0) ++ segs_txt DOT_SEP (map part_seg l)) ++ R) p d).
Proof.
  intros H0 Hl HR Hdot Hlen.
  destruct (key_parts_pto d x0 l R H0 Hl HR Hdot p) as (res & p1 & E & Hkeys).
  apply (f_equal (@length bytes)) in Hkeys. rewrite !map_length in Hkeys. cbn [length] in Hkeys.
  unfold key_, bind, try_map. rewrite (context_ok _ _ _ _ E).
  unfold check_depth. rewrite Hkeys, (proj2 (Nat.leb_le _ _) Hlen). reflexivity.
Qed.

(* the text of the printed key path of a constructed key *)
Lemma key_display_repr_new k tk : write_key KDefault k = Some tk -> key_display_repr (key_new k) = tk.
Proof. intro H. unfold key_display_repr, key_new. cbn [k_repr repr_str k_key]. rewrite H. reflexivity. Qed.

Lemma encode_key_path_one k tk dflt : write_key KDefault k = Some tk ->
  encode_key_path [key_new k] dflt = fst dflt ++ tk ++ snd dflt.
Proof.
  intro H. unfold encode_key_path. cbn [rev app encode_key_path_loop]. rewrite (key_display_repr_new k tk H).
  unfold decor_prefix, decor_suffix, key_new. cbn [k_leaf d_prefix d_suffix decor_default]. rewrite app_nil_r. reflexivity.
Qed.

(* a single key between blanks, as in `{ k = v }` and `k = v`, in front of `=` *)
Lemma key_one_pto d k tk a b R :
  utf8_valid_b k = true -> write_key KDefault k = Some tk -> sp a -> sp b ->
  pto key_ (a ++ tk ++ b) (x3d :: R) d (fun kp => exists kk, kp = [kk] /\ k_key kk = k).
Proof.
  intros Hu Hw Ha Hb.
  pose proof (key_path_pto d (k, a, tk, b) [] (x3d :: R)) as H. cbn [part_seg seg_txt map segs_txt fst snd] in H.
  rewrite app_nil_r in H.
  eapply pto_weaken; [apply H|].
  - repeat split; assumption.
  - constructor.
  - apply kend_eq.
  - reflexivity.
  - cbn [length]. unfold LIMIT. lia.
  - intros kp Hk. cbn [map fst] in Hk. destruct kp as [|kk [|? ?]]; try discriminate.
    exists kk. split; [reflexivity|]. injection Hk as ->. reflexivity.
Qed.
