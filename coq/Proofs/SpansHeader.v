(* Proofs/SpansHeader.v — C14: a table that has a header of its own has a span, and the span starts at that header.

   For EVERY accepted document, every table of the parsed tree that is not implicit — the root, every table given a
   `[header]`, every element of an array of tables — has a span, and the span starts where a header starts: at a `[`
   of the source text (the root's at offset 0).  This holds wherever the header stands relative to the headers of the
   table's sub-tables: `[a.b]` first makes `a` an implicit table without a span, `[a]` later re-opens THAT table
   (ParseState::start_table takes it out of the tree) and the header's span is set on what was re-opened
   (`start_table_span`); the same when the sub-table is an array of tables (`[[a.b]]` ... `[a]`).  Implicit tables (made
   by longer headers only, or by dotted keys) are the known finding C14-implicit-table-span / have spans by C14_nested.

   Along the parse: the invariant `hsp` over the tree, through descend_path (the relational view dctx_rel of Proofs/DocumentOps.v),
   finalize_table, start_table, start_array_table, on_keyval (+ the span bookkeeping of dotted tables). *)
From TV Require Import Base.Prelude Base.Winnow Spec.WF.
From TV Require Import Model.Tree Model.Parse Model.Document.
From TV Require Import Proofs.LexEquivBase
                       Proofs.GrammarValueSound Proofs.GrammarDocLine
                       Proofs.PrintBackEnc Proofs.PrintBackDAll.
From TV Require Proofs.SpansNestState.
From TV Require Import Proofs.WFParseState Proofs.WFParseDoc.
From TV Require Import Proofs.KvFacts.
From TV Require Import Proofs.DocumentOps.
Require Import Lia NArith.

Section H.
  Variable s : bytes.

  (* a header starts here (the root table "starts" at 0) *)
  Definition hstart (a : N) : Prop := a = 0%N \/ nth_error s (N.to_nat a) = Some x5b.

  (* the table's own flags and span *)
  Definition hflag (t : tbl) : Prop :=
    (t_dotted t = true -> t_implicit t = true)
    /\ (t_implicit t = false -> exists a, span_start t = Some a /\ hstart a).

  (* ... for every table below t *)
  Fixpoint hsp (t : tbl) {struct t} : Prop :=
    match t with
    | Tbl items _ _ _ _ _ =>
      all_P (fun kv => match snd kv with
                       | ITable sub => hflag sub /\ hsp sub
                       | IAot ts _ => all_P (fun e => t_implicit e = false /\ hflag e /\ hsp e) ts
                       | _ => True
                       end) items
    end.
  Definition hentry (kv : key * item) : Prop :=
    match snd kv with
    | ITable sub => hflag sub /\ hsp sub
    | IAot ts _ => all_P (fun e => t_implicit e = false /\ hflag e /\ hsp e) ts
    | _ => True
    end.
  Lemma hsp_eq t : hsp t <-> all_P hentry (t_items t).
  Proof. destruct t; reflexivity. Qed.

  Lemma hflag_frame t t' : hframe t t' -> hflag t -> hflag t'.
  Proof. intros (_ & Hi & Hd & _ & Hs) [H1 H2]. unfold hflag. rewrite Hi, Hd, Hs. split; assumption. Qed.
  Lemma hflag_implicitd d : hflag (implicitd d).
  Proof. split; [reflexivity|discriminate]. Qed.
  Lemma hsp_set_items t m : all_P hentry m -> hsp (t_set_items t m).
  Proof. intro H. destruct t. exact H. Qed.
  Lemma hsp_set_span t sp : hsp (t_set_span t sp) <-> hsp t.
  Proof. destruct t; reflexivity. Qed.

  (* ---- descend_path ---------------------------------------------------------------------------------------------------- *)
  Lemma dctx_hsp d p r r' par par' : dctx_rel d p r r' par par' -> hsp r -> hsp par /\ (hsp par' -> hframe par par' -> hsp r').
  Proof.
    induction 1 as [t t'|t k p sub par par' G Hc IH|t k p k0 sub sub' par par' G Hc IH|t k p k0 ts sp last rinit last' par par' G Er Hc IH]; intro Hr.
    - auto.
    - destruct IH as [H1 H2]; [exact I|]. split; [exact H1|]. intros Hp Hf. apply hsp_set_items. apply hsp_eq in Hr.
      apply all_P_push; [exact Hr|]. split; [apply (hflag_frame _ _ (dctx_hframe _ _ _ _ _ _ Hc Hf)), hflag_implicitd|apply H2; assumption].
    - apply hsp_eq in Hr. pose proof (all_P_get _ _ _ _ _ Hr G) as [Hfl Hs]. cbn [snd] in Hfl, Hs. destruct (IH Hs) as [H1 H2]. split; [exact H1|].
      intros Hp Hf. apply hsp_set_items. apply (all_P_set _ _ _ k0 _ _ Hr G).
      split; [apply (hflag_frame _ _ (dctx_hframe _ _ _ _ _ _ Hc Hf)), Hfl|apply H2; assumption].
    - apply hsp_eq in Hr. pose proof (all_P_get _ _ _ _ _ Hr G) as Hts. unfold hentry in Hts. cbn [snd] in Hts.
      assert (Ets : ts = rev rinit ++ [last]) by (rewrite <- (rev_involutive ts), Er; reflexivity).
      rewrite Ets in Hts. apply all_P_app in Hts as [Hinit [(Hli & Hlf & Hls) _]]. destruct (IH Hls) as [H1 H2]. split; [exact H1|].
      intros Hp Hf. apply hsp_set_items. apply (all_P_set _ _ _ k0 _ _ Hr G). unfold hentry. cbn [snd rev]. apply all_P_app.
      split; [exact Hinit|]. split; [|exact I]. pose proof (dctx_hframe _ _ _ _ _ _ Hc Hf) as Hfr.
      split; [destruct Hfr as (_ & Hi & _); congruence|]. split; [apply (hflag_frame _ _ Hfr), Hlf|apply H2; assumption].
  Qed.

  (* descend_path with a closure that keeps `hsp` and the table's own flags and span start *)
  Lemma wta_hsp {X} d (f : tbl -> cres (tbl * X)) (R : X -> Prop) p r r' x :
    with_table_at r p d f = COk (r', x) -> hsp r ->
    (forall par par', f par = COk (par', x) -> hsp par -> hsp par' /\ hframe par par' /\ R x) ->
    hsp r' /\ hframe r r' /\ R x.
  Proof.
    intros E Hr Hf. destruct (wta_dctx d _ _ _ _ _ E) as (par & par' & Hfp & Hc). destruct (dctx_hsp _ _ _ _ _ _ Hc Hr) as [Hp Hback].
    destruct (Hf _ _ Hfp Hp) as (Hp' & Hfr & HR). split; [apply Hback; assumption|]. split; [apply (dctx_hframe _ _ _ _ _ _ Hc Hfr)|exact HR].
  Qed.

  (* ---- the header's span is the span of what it opens, re-used implicit table or not ------------------------------------ *)
  Lemma start_table_span st path dec sp st' : start_table st path dec sp = COk st' ->
    t_span (st_current st') = Some sp /\ t_implicit (st_current st') = false /\ t_dotted (st_current st') = false.
  Proof. intro H. apply start_table_inv in H as (_ & _ & ppath & k & root' & tk & _ & _ & ->). repeat split. Qed.
  Lemma start_array_table_span st path dec sp st' : start_array_table st path dec sp = COk st' ->
    t_span (st_current st') = Some sp /\ t_implicit (st_current st') = false /\ t_dotted (st_current st') = false.
  Proof. intro H. apply start_array_table_inv in H as (_ & _ & ppath & k & root' & _ & _ & ->). repeat split. Qed.
  Lemma on_header_span arr st path tr sp st' : on_header arr st path tr sp = COk st' ->
    t_span (st_current st') = Some sp /\ t_implicit (st_current st') = false /\ t_dotted (st_current st') = false.
  Proof.
    unfold on_header. intro H. destruct path; [discriminate|]. destruct (finalize_table st) as [st1| |]; try discriminate.
    unfold take_trailing in H. cbv zeta in H. destruct arr; [apply (start_array_table_span _ _ _ _ _ H)|apply (start_table_span _ _ _ _ _ H)].
  Qed.

  (* ---- the state ----------------------------------------------------------------------------------------------------------- *)
  Definition cur_h (cur : tbl) : Prop := t_implicit cur = false /\ hflag cur /\ hsp cur.
  Definition hinv (st : pstate) : Prop :=
    cur_h (st_current st) /\ hsp (st_root st) /\ (st_path st <> [] -> hflag (st_root st)).

  Lemma hflag0 t : t_implicit t = false -> t_dotted t = false -> span_start t = Some 0%N -> hflag t.
  Proof. intros Hi Hd Hs. split; [congruence|]. intros _. exists 0%N. split; [exact Hs|left; reflexivity]. Qed.

  Lemma hinv_new : hinv state_new.
  Proof.
    split; [|split; [exact I|intro H; contradiction]]. split; [reflexivity|]. split; [apply hflag0; reflexivity|exact I].
  Qed.
  Lemma hinv_on_ws st sp : hinv st -> hinv (on_ws st sp).
  Proof. exact (fun H => H). Qed.

  (* finalize_table: the open table goes back into the tree *)
  Lemma finalize_hinv st st' : finalize_table st = COk st' -> hinv st ->
    hsp (st_root st') /\ hflag (st_root st') /\ t_items (st_current st') = [] /\ st_path st' = [].
  Proof.
    intros Hf ((Hci & Hcf & Hcs) & Hr & Hrf). rewrite finalize_table_eq in Hf. destruct (pop_key (st_path st)) as [[ppath k]|] eqn:Ep.
    - assert (Hne : st_path st <> []) by (intro X; rewrite X in Ep; discriminate).
      destruct (with_table_at (st_root st) ppath false ((if st_is_array st then f_fin_aot else f_fin_std) k (st_current st))) as [[root' u]| |] eqn:E; try discriminate.
      injection Hf as <-. cbn [finalized st_root st_current st_path].
      destruct (wta_hsp false _ (fun _ => True) _ _ _ _ E Hr) as (Hr' & Hfr & _).
      { intros par par' Hfp Hp. apply hsp_eq in Hp. destruct (st_is_array st).
        - unfold f_fin_aot in Hfp. destruct (kv_get (t_items par) (k_key k)) as [[k0 it]|] eqn:G.
          + destruct it as [|v|sub|ts sp]; try discriminate. injection Hfp as <-. split; [|split; [apply hframe_set_items|exact I]]. apply hsp_set_items.
            pose proof (all_P_get _ _ _ _ _ Hp G) as Hts. unfold hentry in Hts. cbn [snd] in Hts.
            apply (all_P_set _ _ _ k0 _ _ Hp G). unfold hentry. cbn [snd]. apply all_P_app. split; [exact Hts|]. split; [auto|exact I].
          + injection Hfp as <-. split; [|split; [apply hframe_set_items|exact I]]. apply hsp_set_items. apply all_P_push; [exact Hp|]. unfold hentry. cbn [snd all_P]. auto.
        - unfold f_fin_std in Hfp. destruct (kv_get (t_items par) (k_key k)) as [[k0 it]|] eqn:G.
          + destruct it as [|v|sub|ts sp]; try discriminate. destruct (t_implicit sub); [|discriminate]. injection Hfp as <-.
            split; [|split; [apply hframe_set_items|exact I]]. apply hsp_set_items. apply (all_P_set _ _ _ k0 _ _ Hp G). split; assumption.
          + injection Hfp as <-. split; [|split; [apply hframe_set_items|exact I]]. apply hsp_set_items. apply all_P_push; [exact Hp|]. split; assumption. }
      split; [exact Hr'|]. split; [|split; reflexivity]. apply (hflag_frame _ _ Hfr), Hrf, Hne.
    - destruct (tbl_is_empty (st_root st)); [|discriminate]. injection Hf as <-. cbn [finalized st_root st_current st_path].
      split; [exact Hcs|]. split; [exact Hcf|split; reflexivity].
  Qed.

  Lemma hflag_opened T dec pos sp : hstart (fst sp) -> hflag (Tbl T dec false false pos (Some sp)).
  Proof. intro H. split; [discriminate|]. intros _. exists (fst sp). split; [reflexivity|exact H]. Qed.

  (* what a header opens: the tree root', the entries of cur *)
  Lemma open_table_hinv st root' cur path dec sp ia :
    hsp root' -> hflag root' -> hsp cur -> hstart (fst sp) -> hinv (open_table st root' cur path dec sp ia).
  Proof.
    intros Hr Hrf Hcur Hsp. unfold hinv, open_table, cur_h. cbn [st_root st_current st_path t_implicit].
    split; [split; [reflexivity|split; [apply hflag_opened, Hsp|]]|split; [exact Hr|intros _; exact Hrf]].
    apply hsp_eq. cbn [t_items]. apply hsp_eq, Hcur.
  Qed.

  Lemma start_table_hinv st path dec sp st' :
    start_table st path dec sp = COk st' -> hsp (st_root st) -> hflag (st_root st) -> hsp (st_current st) -> hstart (fst sp) -> hinv st'.
  Proof.
    intros H Hr Hrf Hcur Hsp. apply start_table_inv in H as (_ & _ & ppath & k & root' & tk & _ & E & ->).
    destruct (wta_hsp false _ (fun tk => hsp (match tk with Some t => t | None => st_current st end)) _ _ _ _ E Hr) as (Hr' & Hfr & Htk).
    { intros par par' Hfp Hp. unfold f_start_std in Hfp. destruct (kv_get (t_items par) (k_key k)) as [[k0 it]|] eqn:G.
      - destruct it as [|v|t|ts asp]; try discriminate. destruct (t_implicit t && negb (t_dotted t)); [|discriminate]. injection Hfp as <- <-.
        apply hsp_eq in Hp. pose proof (all_P_get _ _ _ _ _ Hp G) as [_ Ht]. cbn [snd] in Ht.
        split; [apply hsp_set_items, all_P_remove, Hp|]. split; [apply hframe_set_items|exact Ht].
      - injection Hfp as <- <-. split; [exact Hp|]. split; [apply hframe_refl|exact Hcur]. }
    apply open_table_hinv; [exact Hr'|apply (hflag_frame _ _ Hfr), Hrf|exact Htk|exact Hsp].
  Qed.

  Lemma start_array_table_hinv st path dec sp st' :
    start_array_table st path dec sp = COk st' -> hsp (st_root st) -> hflag (st_root st) -> hsp (st_current st) -> hstart (fst sp) -> hinv st'.
  Proof.
    intros H Hr Hrf Hcur Hsp. apply start_array_table_inv in H as (_ & _ & ppath & k & root' & _ & E & ->).
    destruct (wta_hsp false _ (fun _ => True) _ _ _ _ E Hr) as (Hr' & Hfr & _).
    { intros par par' Hfp Hp. unfold f_start_aot in Hfp. destruct (kv_get (t_items par) (k_key k)) as [[k0 it]|] eqn:G.
      - destruct it as [|v|t|ts asp]; try discriminate. injection Hfp as <-. split; [exact Hp|split; [apply hframe_refl|exact I]].
      - injection Hfp as <-. split; [|split; [apply hframe_set_items|exact I]]. apply hsp_set_items. apply hsp_eq in Hp. apply all_P_push; [exact Hp|exact I]. }
    apply open_table_hinv; [exact Hr'|apply (hflag_frame _ _ Hfr), Hrf|exact Hcur|exact Hsp].
  Qed.

  Lemma on_header_hinv arr st path tr sp st' : on_header arr st path tr sp = COk st' -> hinv st -> hstart (fst sp) -> hinv st'.
  Proof.
    intros H Hi Hsp. unfold on_header in H. destruct path as [|k1 p1]; [discriminate|]. destruct (finalize_table st) as [st1| |] eqn:Ef; try discriminate.
    destruct (finalize_hinv st st1 Ef Hi) as (Hr1 & Hrf1 & Hc1 & _). unfold take_trailing in H. cbv zeta in H.
    assert (Hcur1 : hsp (st_current st1)) by (apply hsp_eq; rewrite Hc1; exact I).
    destruct arr; [apply (start_array_table_hinv _ _ _ _ _ H)|apply (start_table_hinv _ _ _ _ _ H)]; assumption.
  Qed.

  (* ---- key/value lines ------------------------------------------------------------------------------------------------------ *)
  Lemma sds_hsp : forall path t e, hsp t -> hsp (set_dotted_spans t path e).
  Proof.
    induction path as [|k ptl IH]; intros t e Ht; [exact Ht|]. cbn [set_dotted_spans].
    destruct (kv_get (t_items t) (k_key k)) as [[k0 it]|] eqn:G; [|exact Ht]. destruct it as [|v0|sub|ts asp]; try exact Ht.
    apply hsp_eq in Ht. pose proof (all_P_get _ _ _ _ _ Ht G) as [[Hd Hs] Hsub]. cbn [snd] in Hd, Hs, Hsub.
    apply hsp_set_items. apply (all_P_set _ _ _ k0 _ _ Ht G). unfold hentry. cbn [snd].
    match goal with |- context [set_dotted_spans ?S1 ptl e] => set (sub1 := S1) end.
    assert (Hfl : hflag sub) by (split; assumption).
    assert (F : hflag sub1 /\ hsp sub1).
    { subst sub1. destruct (t_dotted sub) eqn:Ed; [|split; [exact Hfl|exact Hsub]].
      destruct (key_span k); [|split; [exact Hfl|exact Hsub]]. destruct e; [|split; [exact Hfl|exact Hsub]].
      split; [|apply hsp_set_span, Hsub]. pose proof (Hd eq_refl) as Hi. destruct sub as [m d0 im dt q ssp]. cbn in *. subst. split; [reflexivity|discriminate]. }
    destruct F as [[F1 F2] F3]. destruct (SpansNestState.sds_props ptl sub1 e) as (P1 & P2 & P3).
    split; [|apply IH, F3]. unfold hflag, span_start. rewrite P1, P2, P3. split; assumption.
  Qed.

  Lemma hframe_trans a b c : hframe a b -> hframe b c -> hframe a c.
  Proof. intros (A1 & A2 & A3 & A4 & A5) (B1 & B2 & B3 & B4 & B5). repeat split; congruence. Qed.

  Lemma on_keyval_hsp st path k v st' : on_keyval st path k (IValue v) = COk st' -> hsp (st_current st) ->
    hsp (st_current st') /\ hframe (st_current st) (st_current st') /\ st_root st' = st_root st /\ st_path st' = st_path st.
  Proof.
    intros H Hc. apply on_keyval_inv in H as (cur' & E & ->). cbn [st_current st_root st_path].
    assert (Hc0 : hsp (kv_cur st (IValue v)) /\ hframe (st_current st) (kv_cur st (IValue v))).
    { unfold kv_cur. destruct (t_span (st_current st)) as [e|] eqn:Es; [|split; [exact Hc|apply hframe_refl]].
      destruct (item_span (IValue v)) as [vs|]; [|split; [exact Hc|apply hframe_refl]]. split; [apply hsp_set_span, Hc|].
      unfold hframe, span_start. rewrite Es. destruct (st_current st); repeat split. }
    destruct Hc0 as [Hc0 Hf0].
    destruct (wta_hsp true _ (fun _ => True) _ _ _ _ E Hc0) as (Hc' & Hfr & _).
    { intros par par' Hfp Hp. unfold f_keyval in Hfp. destruct (Bool.eqb (t_dotted par) _); [discriminate|].
      destruct (kv_get (t_items par) _); [discriminate|]. injection Hfp as <-. split; [|split; [apply hframe_set_items|exact I]].
      apply hsp_set_items. apply hsp_eq in Hp. apply all_P_push; [exact Hp|exact I]. }
    split; [exact Hc'|]. split; [exact (hframe_trans _ _ _ Hf0 Hfr)|split; reflexivity].
  Qed.

  Lemma on_keyval_sp_hinv st path k v st' : on_keyval_sp st path k (IValue v) = COk st' -> hinv st -> hinv st'.
  Proof.
    intros H ((Hci & Hcf & Hcs) & Hr & Hrf).
    apply on_keyval_sp_inv in H as (st0 & Eo & ->).
    destruct (on_keyval_hsp st path k v st0 Eo Hcs) as (Hs0 & Hfr & E1 & E2). unfold hinv, cur_h. cbn [st_root st_current st_path].
    destruct (SpansNestState.sds_props path (st_current st0) (item_end (IValue v))) as (P1 & P2 & P3).
    split; [|split; [rewrite E1; exact Hr|rewrite E1, E2; exact Hrf]].
    split; [rewrite P3; destruct Hfr as (_ & Hi & _); congruence|]. split; [|apply sds_hsp, Hs0].
    pose proof (hflag_frame _ _ Hfr Hcf) as [F1 F2]. unfold hflag, span_start. rewrite P1, P2, P3. split; assumption.
  Qed.

  (* ---- the document loop ---------------------------------------------------------------------------------------------------- *)
  Lemma isrc_head i b r : isrc s i -> rest i = b :: r -> nth_error s (N.to_nat (pos i)) = Some b.
  Proof.
    intros (p & Es & Ep) R. rewrite Es, R, Ep, Nnat.Nat2N.id. rewrite nth_error_app2 by lia. rewrite Nat.sub_diag. reflexivity.
  Qed.

  Lemma keyval_h st i st1 i1 : keyval st i = Ok st1 i1 -> hinv st -> hinv st1.
  Proof.
    unfold keyval. intros H Hh. apply try_map_inv in H as ([path [k it]] & H & Hst).
    rewrite GrammarDocLine.parse_keyval_unfold in H. apply bind_inv in H as (kp & j1 & _ & H).
    apply bind_inv in H as ([[pre v] suf] & j2 & _ & H).
    destruct (pop_key kp) as [[pth kk0]|]; [|discriminate]. apply ret_inv in H as [E _]. injection E as <- <- ->.
    destruct (on_keyval_sp st path k _) as [st'| |] eqn:Eo; try discriminate. cbn [lift_state] in Hst. injection Hst as <-.
    apply (on_keyval_sp_hinv _ _ _ _ _ Eo Hh).
  Qed.

  Lemma header_h arr st i st1 i1 : header arr st i = Ok st1 i1 -> isrc s i -> hinv st -> hinv st1.
  Proof.
    rewrite header_unfold. intros H Hi Hh. apply try_map_inv in H as ([[kp sp] tr] & H & Hst).
    unfold header_text, pair_ in H. apply bind_inv in H as ([kp0 sp0] & j1 & H1 & H).
    apply bind_inv in H as (tr0 & j2 & _ & H). apply ret_inv in H as [E ->]. injection E as <- <- <-.
    apply with_span_inv in H1 as (kp1 & H1 & E). injection E as <- ->.
    unfold delimited in H1. apply bind_inv in H1 as (u & k1 & Eo & _). apply open_p_inv in Eo. destruct Eo as [R _].
    destruct (on_header arr st kp tr (pos i, pos j1)) as [st'| |] eqn:Eh; try discriminate. cbn [lift_state] in Hst. injection Hst as <-.
    apply (on_header_hinv arr st kp tr _ st' Eh Hh). cbn [fst]. right.
    apply (isrc_head i x5b (tl (topen arr) ++ rest k1) Hi). rewrite R. destruct arr; reflexivity.
  Qed.

  Lemma doc_line_h st i st1 i1 : doc_line st i = Ok st1 i1 -> isrc s i -> hinv st -> hinv st1.
  Proof.
    intros H Hi Hh. apply doc_line_read in H as (st0 & j & sp & Hr & _ & ->). apply hinv_on_ws.
    destruct (line_read_parsers _ _ _ _ Hr) as [E|[E|[[arr E]|E]]].
    - unfold parse_comment in E. apply pmap_inv in E as (sp0 & _ & ->). apply hinv_on_ws, Hh.
    - unfold parse_newline in E. apply pmap_inv in E as (sp0 & _ & ->). apply hinv_on_ws, Hh.
    - apply (header_h _ _ _ _ _ E Hi Hh).
    - apply (keyval_h _ _ _ _ E Hh).
  Qed.

  Lemma doc_loop_h fuel st i st' i' : doc_loop fuel st i = Ok st' i' -> pinv s st i -> hinv st -> hinv st'.
  Proof.
    intros H HP Hh. refine (proj2 (doc_loop_keeps (fun i st => pinv s st i /\ hinv st) _ fuel st i st' i' H (conj HP Hh))).
    intros st0 j st1 j1 E [HP0 Hh0]. split; [exact (doc_line_pinv s st0 j st1 j1 E HP0)|].
    destruct HP0 as (_ & Hj & _). exact (doc_line_h _ _ _ _ E Hj Hh0).
  Qed.

  (* every table of the document that is not implicit has a span starting at a header *)
  Definition header_spans (root : tbl) : Prop := hflag root /\ hsp root.

  Theorem parsed_header_spans d : parse_document s = POk d -> header_spans (doc_root d).
  Proof.
    intro H. destruct (parse_document_inv s d H) as (o & i1 & stw & i2 & stl & i3 & st' & Eb & Ew & El & _ & Ef & ->). cbn [doc_root].
    assert (Hi1 : isrc s i1 /\ depth i1 = 0).
    { apply opt_inv in Eb as [(x & _ & Eb) | (_ & -> & _)]; [|split; [apply isrc_new|reflexivity]].
      apply lit_inv in Eb as [_ Sb]. split; [apply (isrc_splits s _ _ _ (isrc_new s) Sb)|rewrite (splits_depth _ _ _ Sb); reflexivity]. }
    destruct Hi1 as [Hi1 D1].
    assert (HP2 : pinv s stw i2 /\ hinv stw).
    { unfold parse_ws in Ew. apply pmap_inv in Ew as (sp & Ew & ->). split; [|apply hinv_on_ws, hinv_new].
      pose proof Ew as Ew'. apply span_inv in Ew' as (uu & _ & Esp).
      apply span_ws_inv in Ew as (w & Hw & Sw & _). destruct (isrc_splits s i1 _ i2 Hi1 Sw) as [Hi2 _].
      split; [apply sinv_on_ws, sinv_new|]. split; [exact Hi2|]. split; [rewrite (splits_depth _ _ _ Sw); exact D1|].
      apply (trail_on_ws s state_new i1 sp w i2 (trail_none s state_new i1 Hi1 eq_refl) Sw Esp). intros _ t Ht. left. apply tr_ws; assumption. }
    destruct HP2 as [HP2 Hh2]. pose proof (doc_loop_h _ _ _ _ _ El HP2 Hh2) as Hhl.
    destruct (finalize_hinv stl st' Ef Hhl) as (Hr & Hrf & _). split; assumption.
  Qed.
End H.

(* ---- read off: any non-implicit table anywhere in the tree ------------------------------------------------------------------ *)
Inductive in_tree : tbl -> tbl -> Prop :=
| it_here t : in_tree t t
| it_table t k sub u : In (k, ITable sub) (t_items t) -> in_tree sub u -> in_tree t u
| it_aot t k ts sp e u : In (k, IAot ts sp) (t_items t) -> In e ts -> in_tree e u -> in_tree t u.

Lemma header_spans_in s root : header_spans s root -> forall u, in_tree root u -> hflag s u /\ hsp s u.
Proof.
  intros H u Hin. induction Hin as [t|t k sub u Hk _ IH|t k ts sp e u Hk He _ IH]; [exact H|apply IH|apply IH].
  - destruct H as [_ H]. apply hsp_eq in H. exact (all_P_In _ _ _ H Hk).
  - destruct H as [_ H]. apply hsp_eq in H. pose proof (all_P_In _ _ _ H Hk) as Hts. unfold hentry in Hts. cbn [snd] in Hts.
    destruct (all_P_In _ _ _ Hts He) as (_ & H1 & H2). split; assumption.
Qed.

(* THE statement: in every accepted document, a table that is not implicit — it has a header of its own, is an element of an
   array of tables, or is the root — has a span, and the span starts at a `[` of the text (the root's at 0) *)
Theorem explicit_table_span s d u : parse_document s = POk d -> in_tree (doc_root d) u -> t_implicit u = false ->
  exists a b, t_span u = Some (a, b) /\ (a = 0%N \/ nth_error s (N.to_nat a) = Some x5b).
Proof.
  intros Hp Hin Hi. destruct (header_spans_in s _ (parsed_header_spans s d Hp) u Hin) as [[_ Hf] _].
  destruct (Hf Hi) as (a & Hs & Ha). unfold span_start in Hs. destruct (t_span u) as [[a0 b0]|]; [|discriminate]. injection Hs as <-.
  exists a0, b0. split; [reflexivity|exact Ha].
Qed.

(* elements of arrays of tables are never implicit *)
Theorem aot_element_span s d t k ts sp e : parse_document s = POk d -> in_tree (doc_root d) t -> In (k, IAot ts sp) (t_items t) -> In e ts ->
  t_implicit e = false /\ exists a b, t_span e = Some (a, b) /\ (a = 0%N \/ nth_error s (N.to_nat a) = Some x5b).
Proof.
  intros Hp Hin Hk He. destruct (header_spans_in s _ (parsed_header_spans s d Hp) t Hin) as [_ Ht]. apply hsp_eq in Ht.
  pose proof (all_P_In _ _ _ Ht Hk) as Hts. unfold hentry in Hts. cbn [snd] in Hts. destruct (all_P_In _ _ _ Hts He) as (Hi & [_ Hf] & _).
  split; [exact Hi|]. destruct (Hf Hi) as (a & Hs & Ha). unfold span_start in Hs. destruct (t_span e) as [[a0 b0]|]; [|discriminate]. injection Hs as <-.
  exists a0, b0. split; [reflexivity|exact Ha].
Qed.
