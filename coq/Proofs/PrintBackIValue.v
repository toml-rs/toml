(* Proofs/PrintBackIValue.v — C03, dotted keys inside inline tables: C03 tiling for values, with the check
   `vok` on a value of the tree: every inline table in it (hereditarily) either has no table implied by
   dotted keys among its items, or its pairs, in the order Display prints them, follow each other in the
   source as they were written (one after the other from the opening brace, each key path spelled as it
   prints).  Then Display of the value is the normal form of its text. *)
From TV Require Import Base.Prelude Base.Winnow Gen.Consts Spec.Abnf Spec.Lex Spec.Syntax.
From TV Require Import Model.Strings Model.Datetime Model.Numbers Model.Tree Model.Parse Model.Encode.
From TV Require Import Proofs.NoPanicBase Proofs.NoPanicValue Proofs.NumbersRT_Value.
From TV Require Import Proofs.LexEquivBase Proofs.LexEquivTrivia Proofs.LexEquivInt Proofs.LexEquivFloat Proofs.LexEquivString Proofs.LexEquivDatetime Proofs.GrammarSep
                       Proofs.GrammarValueTok Proofs.GrammarValueSound Proofs.GrammarValueComplete
                       Proofs.TilingDefs Proofs.TilingNormDoc Proofs.PrintBackBase Proofs.PrintBackEnc Proofs.PrintBackValue
                       Proofs.PrintBackSort Proofs.PrintBackHKey
                       Proofs.PrintBackDVals Proofs.PrintBackDKey Proofs.PrintBackIVals.
From TV Require Import Proofs.ModelFacts.
From TV Require Import Proofs.DocumentOps.
Require Import Lia ZifyBool ZifyN ZifyNat Sorting.Sorted Sorting.Permutation.

Definition kdummy : key := mkKey [] None decor_default decor_default.
Definition vdecor (v : value) : decor :=
  match v with VScalar _ _ d => d | VArray _ _ _ d _ => d | VInline _ _ _ _ d _ => d end.
Definition vend (v : value) : option N := match value_span v with Some sp => Some (snd sp) | None => None end.
Definition kra (k : key) : N := match k_repr k with Some (RSpanned a _) => a | _ => 0%N end.

(* the pairs of an inline table in print order follow each other in the source: `cursor` is where the next
   pair starts (after the opening brace, or after the comma that follows the previous pair) *)
Fixpoint chain_ok (s : bytes) (cursor : nat) (ch : list (list key * value)) : bool :=
  match ch with
  | [] => true
  | (kp, e) :: tl =>
    let k' := last kp kdummy in
    let X := pre_text s (removelast kp) k' in
    let LP := decor_prefix (k_leaf (tkey s k')) [] in
    let LS := decor_suffix (k_leaf (tkey s k')) [] in
    let SUF := decor_suffix (tdecor s (vdecor e)) [] in
    match k_repr k', vend e with
    | Some (RSpanned ra _), Some eend =>
      Nat.eqb (N.to_nat ra) (cursor + length LP + length X)
      && starts_with (X ++ krepr s k' ++ LS ++ [x3d]) (skipn (cursor + length LP) s)
      && chain_ok s (N.to_nat eend + length SUF + 1) tl
    | _, _ => false
    end
  end.

Fixpoint sorted_ltb (l : list N) : bool :=
  match l with [] => true | x :: tl => forallb (fun y => (x <? y)%N) tl && sorted_ltb tl end.

Definition layout_ok (s : bytes) (sp : ospan) (items : list (key * item)) : bool :=
  negb (has_bad items)
  || match sp with
     | Some (a, _) =>
       sorted_ltb (map (fun kv : list key * value => kra (last (fst kv) kdummy)) (ivi items []))
       && chain_ok s (N.to_nat a + 1) (ivi items [])
     | None => false
     end.

Fixpoint vok (s : bytes) (v : value) {struct v} : bool :=
  match v with
  | VScalar _ _ _ => true
  | VArray vals _ _ _ _ => (fix go (l : list item) : bool := match l with [] => true | it :: tl => iok s it && go tl end) vals
  | VInline items pre im dt d sp =>
    (fix go (l : list (key * item)) : bool := match l with [] => true | (_, it) :: tl => iok s it && go tl end) items
    && (im || dt || layout_ok s sp items)
  end
with iok (s : bytes) (it : item) {struct it} : bool := match it with IValue v => vok s v | _ => false end.
Definition items_ok (s : bytes) (m : list (key * item)) : bool := forallb (fun kv => iok s (snd kv)) m.

Lemma vok_array s vals tr c d sp : vok s (VArray vals tr c d sp) = forallb (iok s) vals.
Proof. cbn [vok]. induction vals as [|it tl IH]; [reflexivity|]. cbn [forallb]. rewrite <- IH. reflexivity. Qed.
Lemma vok_inline s items pre im dt d sp :
  vok s (VInline items pre im dt d sp) = items_ok s items && (im || dt || layout_ok s sp items).
Proof.
  cbn [vok]. f_equal. unfold items_ok. induction items as [|[k it] tl IH]; [reflexivity|]. cbn [forallb snd]. rewrite <- IH. reflexivity.
Qed.
Lemma vok_decorate s v p q : vok s (value_decorate v p q) = vok s v.
Proof. destruct v; reflexivity. Qed.

Lemma vplain_vok s :
  (forall v, vplain v = true -> vok s v = true) /\ (forall it, iplain it = true -> iok s it = true) /\ (forall t : tbl, True).
Proof.
  apply SpansDefs.tree_ind3; try (intros; exact I); try discriminate.
  - intros; reflexivity.
  - intros vals tr c d sp IH H. rewrite vplain_array in H. rewrite vok_array. rewrite forallb_forall in *. intros it Hit.
    rewrite Forall_forall in IH. apply (IH it Hit), H, Hit.
  - intros items pre im dt d sp IH H. rewrite vplain_inline in H. rewrite vok_inline. apply andb_true_iff in H as [H Hi].
    apply andb_true_iff in H as [H1 H2]. apply andb_true_iff. split.
    + unfold items_ok, items_plain in *. rewrite forallb_forall in *. intros kv Hkv. rewrite Forall_forall in IH. apply (IH kv Hkv), Hi, Hkv.
    + unfold layout_ok. destruct (has_bad items) eqn:Hb; [rewrite (has_bad_not_plain _ Hb) in Hi; discriminate|]. cbn [negb orb]. apply orb_true_r.
  - intros v IH H. apply IH, H.
Qed.

(* ---- facts about the flattened pairs ----------------------------------------------------------------------------------- *)
Lemma ivi_Forall (Q : list key * value -> Prop) items p :
  (forall k it, In (k, it) items -> Forall Q (ivit it (p ++ [k]))) -> Forall Q (ivi items p).
Proof.
  intro H. apply Forall_flat_map, Forall_forall. intros [k it] Hk. apply (H k it Hk).
Qed.

Lemma leaf_facts s v p : ivv v p = [(p, v)] ->
  (p <> [] -> Forall (fun kv : list key * value => fst kv <> []) (ivv v p))
  /\ (vok s v = true -> Forall (fun kv : list key * value => vok s (snd kv) = true) (ivv v p))
  /\ Forall (fun kv : list key * value => value_size (snd kv) <= value_size v) (ivv v p).
Proof.
  intros ->. split; [intro Hp; constructor; [exact Hp|constructor]|]. split; [intro Hv; constructor; [exact Hv|constructor]|].
  constructor; [cbn [snd]; lia|constructor].
Qed.

Lemma ivv_facts s :
  (forall v, forall p, (p <> [] -> Forall (fun kv : list key * value => fst kv <> []) (ivv v p))
                       /\ (vok s v = true -> Forall (fun kv : list key * value => vok s (snd kv) = true) (ivv v p))
                       /\ Forall (fun kv : list key * value => value_size (snd kv) <= value_size v) (ivv v p))
  /\ (forall it, forall p, (p <> [] -> Forall (fun kv : list key * value => fst kv <> []) (ivit it p))
                          /\ (iok s it = true -> Forall (fun kv : list key * value => vok s (snd kv) = true) (ivit it p))
                          /\ Forall (fun kv : list key * value => S (value_size (snd kv)) <= item_size it) (ivit it p))
  /\ (forall t : tbl, True).
Proof.
  apply SpansDefs.tree_ind3; try (intros; exact I).
  - intros x r d p. apply leaf_facts. reflexivity.
  - intros vals tr c d sp _ p. apply leaf_facts. reflexivity.
  - intros items pre im dt d sp IH p. destruct dt.
    + rewrite ivv_dotted. rewrite Forall_forall in IH. split; [|split].
      * intros _. apply ivi_Forall. intros k it Hk. apply (proj1 (IH _ Hk (p ++ [k]))). destruct p; discriminate.
      * intro Hv. rewrite vok_inline in Hv. apply andb_true_iff in Hv as [Hv _]. unfold items_ok in Hv. rewrite forallb_forall in Hv.
        apply ivi_Forall. intros k it Hk. apply (proj1 (proj2 (IH _ Hk (p ++ [k])))), (Hv _ Hk).
      * apply ivi_Forall. intros k it Hk. eapply Forall_impl; [|apply (proj2 (proj2 (IH _ Hk (p ++ [k]))))]. intros x Hx. cbn [snd] in Hx.
        pose proof (kv_size_in items (k, it) Hk) as Hsz. cbn [snd value_size] in *. lia.
    + apply leaf_facts. reflexivity.
  - intros p. cbn [ivit]. repeat split; intros; constructor.
  - intros v IH p. cbn [ivit iok item_size]. destruct (IH p) as (H1 & H2 & H3). split; [exact H1|]. split; [exact H2|].
    eapply Forall_impl; [|exact H3]. intros a Ha. cbn beta in Ha. lia.
  - intros t _ p. cbn [ivit]. repeat split; intros; constructor.
  - intros ts sp _ p. cbn [ivit]. repeat split; intros; constructor.
Qed.

Lemma ivi_paths_ne items p : Forall (fun kv : list key * value => fst kv <> []) (ivi items p).
Proof. apply ivi_Forall. intros k it _. apply (proj1 (proj1 (proj2 (ivv_facts [])) it (p ++ [k]))). destruct p; discriminate. Qed.

Lemma ivi_ne items k0 : Forall (fun kv : list key * value => fst kv <> []) (ivi items [k0]) .
Proof. apply ivi_paths_ne. Qed.

Lemma ivi_ok s items p : items_ok s items = true -> Forall (fun kv : list key * value => vok s (snd kv) = true) (ivi items p).
Proof.
  intro H. unfold items_ok in H. rewrite forallb_forall in H. apply ivi_Forall. intros k it Hk.
  apply (proj1 (proj2 (proj1 (proj2 (ivv_facts s)) it (p ++ [k])))), (H _ Hk).
Qed.

Lemma ivi_size items p : Forall (fun kv : list key * value => S (value_size (snd kv)) <= items_size items) (ivi items p).
Proof.
  apply ivi_Forall. intros k it Hk. eapply Forall_impl; [|apply (proj2 (proj2 (proj1 (proj2 (ivv_facts [])) it (p ++ [k]))))].
  intros x Hx. cbn beta in Hx. pose proof (kv_size_in items (k, it) Hk) as Hsz. cbn [snd] in Hsz. fold (items_size items) in Hsz. lia.
Qed.

(* ---- sorted lists ------------------------------------------------------------------------------------------------------------ *)
Lemma sorted_ltb_ok l : sorted_ltb l = true -> StronglySorted N.lt l.
Proof.
  induction l as [|x l IH]; [constructor|]. cbn [sorted_ltb]. intro H. apply andb_true_iff in H as [H1 H2].
  constructor; [apply IH, H2|]. rewrite forallb_forall in H1. apply Forall_forall. intros y Hy. specialize (H1 y Hy). lia.
Qed.
Lemma sorted_tag_lt {A} (f : A -> N) (l : list A) : StronglySorted N.lt (map f l) -> StronglySorted klt (map (fun x => (f x, x)) l).
Proof.
  induction l as [|x l IH]; [constructor|]. cbn [map]. intro H. inversion H as [|? ? H1 H2]; subst. constructor; [apply IH, H1|].
  rewrite Forall_map in *. eapply Forall_impl; [|exact H2]. intros a Ha. unfold klt. cbn [fst]. exact Ha.
Qed.
Lemma sorted_tag_le {A} (f : A -> N) (l : list A) : StronglySorted N.lt (map f l) -> StronglySorted kle (map (fun x => (f x, x)) l).
Proof.
  induction l as [|x l IH]; [constructor|]. cbn [map]. intro H. inversion H as [|? ? H1 H2]; subst. constructor; [apply IH, H1|].
  rewrite Forall_map in *. eapply Forall_impl; [|exact H2]. intros a Ha. unfold kle. cbn [fst]. cbn beta in Ha. lia.
Qed.
Lemma tag_inj {A} (f : A -> N) : forall l1 l2 : list A, map (fun x => (f x, x)) l1 = map (fun x => (f x, x)) l2 -> l1 = l2.
Proof. induction l1 as [|a l1 IH]; intros [|b l2] E; try discriminate; [reflexivity|]. cbn [map] in E. injection E as _ -> E. f_equal. apply IH, E. Qed.

(* the pairs of the tree in print order are the pairs read, when their positions increase *)
Lemma pairs_eqK ch (kvs : list (key * value)) :
  Permutation (map ipf ch) kvs ->
  sorted_ltb (map (fun c : list key * value => kra (last (fst c) kdummy)) ch) = true ->
  StronglySorted N.lt (map (fun kv : key * value => kra (fst kv)) kvs) -> map ipf ch = kvs.
Proof.
  intros HP Hs1 Hs2. apply (tag_inj (fun kv : key * value => kra (fst kv))). apply sorted_perm_unique.
  - apply sorted_tag_lt, Hs2.
  - apply sorted_tag_le. rewrite map_map. apply sorted_ltb_ok in Hs1. exact Hs1.
  - apply Permutation_map, HP.
Qed.

(* ---- what is known of a parsed value ---------------------------------------------------------------------------------- *)
Definition vrendK (s : bytes) (v : value) (o : bytes) : Prop :=
  vok s v = true -> forall fuel dflt, value_size (core s v) < fuel -> encode_value fuel (core s v) dflt = o.

Definition vrenderK_at (s : bytes) (p : parser value) : Prop :=
  forall i v i', isrc s i -> p i = Ok v i' ->
    exists t a o, vtext t a o /\ splits i t i' /\ isrc s i' /\ vrendK s v o
                  /\ value_span v = Some (pos i, pos i') /\ undot v = true /\ iwf v = true.

Lemma vrendK_decorated s v o i1 w1 j1 i2 w2 j2 :
  vrendK s v o -> isrc s i1 -> splits i1 w1 j1 -> isrc s i2 -> splits i2 w2 j2 ->
  vok s v = true -> forall fuel dflt,
  value_size (tvalue s (value_decorate v (raw_with_span (pos i1, pos j1)) (raw_with_span (pos i2, pos j2)))) < fuel ->
  encode_value fuel (tvalue s (value_decorate v (raw_with_span (pos i1, pos j1)) (raw_with_span (pos i2, pos j2)))) dflt
  = ncr w1 ++ o ++ ncr w2.
Proof.
  intros Hv H1 S1 H2 S2 Hs fuel dflt Hf. destruct fuel as [|f]; [lia|].
  rewrite (enc_decorated s v _ _ f dflt ([], [])). rewrite (span_prints s i1 w1 j1 _ H1 S1), (span_prints s i2 w2 j2 _ H2 S2).
  rewrite value_size_decorated in Hf. rewrite (Hv Hs (S f) ([], []) Hf). reflexivity.
Qed.

Section RenderK.
  Variable s : bytes.
  Variable vr : parser value.
  Hypothesis Hvr : vrenderK_at s vr.
  Hypothesis Hmono : mono vr.

  (* ---- arrays ---------------------------------------------------------------------------------------- *)
  (* an element as printed: trivia, value, trivia *)
  Definition irendK (it : item) (oi : bytes) : Prop :=
    exists v, it = IValue v /\
      (vok s v = true -> forall fuel dflt, value_size (tvalue s v) < fuel -> encode_value fuel (tvalue s v) dflt = oi).

  Lemma array_value_renderK i it i1 : isrc s i -> array_value vr i = Ok it i1 ->
    exists w1 t a o w2, wscn_tok w1 /\ vtext t a o /\ wscn_tok w2 /\ splits i (w1 ++ t ++ w2) i1 /\ isrc s i1
                        /\ irendK it (ncr w1 ++ o ++ ncr w2).
  Proof.
    unfold array_value. intros Hi H.
    apply bind_inv in H as (pre & j1 & H1 & H). pose proof H1 as H1'. apply span_inv in H1' as (u1 & _ & Epre).
    apply span_wscn_inv in H1 as (w1 & Hw1 & S1). destruct (isrc_splits s i w1 j1 Hi S1) as [Hj1 _].
    apply bind_inv in H as (v & j2 & H2 & H). destruct (Hvr j1 v j2 Hj1 H2) as (t & a & o & Ht & S2 & Hj2 & Hv & _).
    apply bind_inv in H as (suf & j3 & H3 & H). pose proof H3 as H3'. apply span_inv in H3' as (u3 & _ & Esuf).
    apply span_wscn_inv in H3 as (w2 & Hw2 & S3). destruct (isrc_splits s j2 w2 j3 Hj2 S3) as [Hj3 _].
    apply ret_inv in H as [-> ->]. exists w1, t, a, o, w2. repeat (split; [assumption|]).
    split; [exact (splits_trans _ _ _ _ _ S1 (splits_trans _ _ _ _ _ S2 S3))|]. split; [exact Hj3|].
    eexists. split; [reflexivity|]. subst pre suf. rewrite (vok_decorate s). intros Hs fuel dflt Hf.
    apply (vrendK_decorated s v o i w1 j1 j2 w2 j3 Hv Hi S1 Hj2 S3 Hs fuel dflt Hf).
  Qed.

  Lemma array_seps_renderK i1 items i2 : isrc s i1 -> seps (array_value vr) (byte_ ARRAY_SEP) i1 items i2 ->
    forall w1 t a o w2 c, wscn_tok w1 -> vtext t a o -> wscn_tok w2 -> (c = [] \/ c = [x2c]) ->
    exists u l ou, avtext (w1 ++ t ++ w2 ++ u ++ c) (a :: l) (ncr w1 ++ o ++ ncr w2 ++ ou ++ c)
                   /\ splits i1 u i2 /\ isrc s i2
                   /\ (forallb (iok s) items = true -> forall f,
                         (forall it, In it items -> item_size (titem s it) <= f) ->
                         enc_elems f false (map (titem s) items) = ou).
  Proof.
    intros Hi R. induction R as [i F|i x j E Hlt F|i x j it j2 items i3 E Hlt E2 Hle R IH]; intros w1 t a o w2 c Hw1 Ht Hw2 Hc.
    - exists [], [], []. split; [apply avt_last; assumption|]. split; [apply splits_nil|]. split; [exact Hi|]. intros; reflexivity.
    - exists [], [], []. split; [apply avt_last; assumption|]. split; [apply splits_nil|]. split; [exact Hi|]. intros; reflexivity.
    - apply byte_inv in E as [_ S1]. destruct (isrc_splits s i [x2c] j Hi S1) as [Hj _].
      destruct (array_value_renderK j it j2 Hj E2) as (w1' & t' & a' & o' & w2' & Hw1' & Ht' & Hw2' & S2 & Hj2 & (v' & Eit & Hit)).
      destruct (IH Hj2 w1' t' a' o' w2' c Hw1' Ht' Hw2' Hc) as (u & l & ou & Hav & S3 & Hi3 & Henc).
      exists ([x2c] ++ (w1' ++ t' ++ w2') ++ u), (a' :: l), ([x2c] ++ (ncr w1' ++ o' ++ ncr w2') ++ ou).
      split; [|split; [exact (splits_trans _ _ _ _ _ (splits_trans _ _ _ _ _ S1 S2) S3)|split; [exact Hi3|]]].
      + replace (w1 ++ t ++ w2 ++ ([x2c] ++ (w1' ++ t' ++ w2') ++ u) ++ c)
          with (w1 ++ t ++ w2 ++ [x2c] ++ (w1' ++ t' ++ w2' ++ u ++ c)) by (rewrite <- !app_assoc; reflexivity).
        replace (ncr w1 ++ o ++ ncr w2 ++ ([x2c] ++ (ncr w1' ++ o' ++ ncr w2') ++ ou) ++ c)
          with (ncr w1 ++ o ++ ncr w2 ++ [x2c] ++ (ncr w1' ++ o' ++ ncr w2' ++ ou ++ c)) by (rewrite <- !app_assoc; reflexivity).
        apply avt_more; assumption.
      + cbn [forallb]. intros Hs f Hsz. apply andb_true_iff in Hs as [Hs1 Hs2]. subst it. cbn [iok] in Hs1. cbn [map]. rewrite titem_value, enc_elems_value. cbv iota.
        rewrite (Hit Hs1 f DEFAULT_VALUE_DECOR).
        * rewrite (Henc Hs2 f); [rewrite <- !app_assoc; reflexivity|]. intros it0 Hin. apply Hsz. right. exact Hin.
        * specialize (Hsz (IValue v') (or_introl eq_refl)). rewrite titem_value in Hsz. cbn [item_size] in Hsz. lia.
  Qed.

  Lemma array_values_renderK i v i' : isrc s i -> array_values vr i = Ok v i' ->
    exists body l ob items tr c dec sp,
      v = VArray items tr c dec sp /\ splits i body i' /\ isrc s i'
      /\ vtext ([x5b] ++ body ++ [x5d]) (AArr l) ([x5b] ++ ob ++ [x5d])
      /\ (forallb (iok s) items = true -> forall f, (forall it, In it items -> item_size (titem s it) <= f) ->
           enc_elems f true (map (titem s) items)
           ++ (if c && negb (match items with [] => true | _ => false end) then [x2c] else []) ++ raw_encode (traw s tr) [] = ob).
  Proof.
    unfold array_values. intros Hi H. apply bind_inv in H as (c & j & H1 & H). apply peek_inv in H1 as [-> _].
    destruct c as [x|].
    - apply ret_inv in H as [-> ->]. exists [], [], [], [], REmpty, false, decor_default, None.
      split; [reflexivity|]. split; [apply splits_nil|]. split; [exact Hi|]. split; [apply (vt_array_empty [] wscn_nil)|]. intros; reflexivity.
    - apply bind_inv in H as (vals & j1 & H1 & H).
      apply bind_inv in H as (comma & j2 & H2 & H). apply bind_inv in H as (tr & j3 & H3 & H).
      pose proof H3 as H3'. apply span_inv in H3' as (u3 & _ & Etr).
      apply span_wscn_inv in H3 as (w & Hw & S3). apply ret_inv in H as [-> ->].
      apply (separated0_inv _ _ _ _ _ (mono_shrinking _ (array_value_mono vr Hmono)) (byte_shrinking _)) in H1
        as [(-> & -> & _) | (it & i1 & items & -> & E & R)].
      + apply ret_inv in H2 as [-> ->]. destruct (isrc_splits s i w j3 Hi S3) as [Hj3 _].
        exists w, [], (ncr w), [], (raw_with_span tr), false, decor_default, None.
        split; [reflexivity|]. split; [exact S3|]. split; [exact Hj3|]. split; [apply (vt_array_empty w Hw)|].
        intros _ f _. cbn [map enc_elems andb app]. subst tr. apply (span_prints s i w j3 [] Hi S3).
      + apply pmap_inv in H2 as (o & H2 & Ecomma).
        destruct (array_value_renderK i it i1 Hi E) as (w1 & t & a & ov & w2 & Hw1 & Ht & Hw2 & S1 & Hi1 & (v0 & Eit & Hit)).
        assert (Hc : exists c, (c = [] \/ c = [x2c]) /\ splits j1 c j2 /\ c = (if comma then [x2c] else [])).
        { apply opt_inv in H2 as [(x & -> & H2) | (-> & -> & _)].
          - apply byte_inv in H2 as [_ S]. exists [x2c]. subst comma. auto.
          - exists []. subst comma. split; [auto|]. split; [apply splits_nil|reflexivity]. }
        destruct Hc as (c & Hc & S2 & Ec).
        destruct (array_seps_renderK i1 items j1 Hi1 R w1 t a ov w2 c Hw1 Ht Hw2 Hc) as (u & l & ou & Hav & Su & Hj1 & Henc).
        destruct (isrc_splits s j1 c j2 Hj1 S2) as [Hj2 _]. destruct (isrc_splits s j2 w j3 Hj2 S3) as [Hj3 _].
        exists (((w1 ++ t ++ w2) ++ u ++ c) ++ w), (a :: l), ((ncr w1 ++ ov ++ ncr w2 ++ ou ++ c) ++ ncr w),
               (it :: items), (raw_with_span tr), comma, decor_default, None.
        split; [reflexivity|]. split; [exact (splits_trans _ _ _ _ _ (splits_trans _ _ _ _ _ S1 (splits_trans _ _ _ _ _ Su S2)) S3)|].
        split; [exact Hj3|]. split.
        * replace ([x5b] ++ (((w1 ++ t ++ w2) ++ u ++ c) ++ w) ++ [x5d])
            with ([x5b] ++ (w1 ++ t ++ w2 ++ u ++ c) ++ w ++ [x5d]) by (rewrite <- !app_assoc; reflexivity).
          replace ([x5b] ++ ((ncr w1 ++ ov ++ ncr w2 ++ ou ++ c) ++ ncr w) ++ [x5d])
            with ([x5b] ++ (ncr w1 ++ ov ++ ncr w2 ++ ou ++ c) ++ ncr w ++ [x5d]) by (rewrite <- !app_assoc; reflexivity).
          apply vt_array; assumption.
        * cbn [forallb]. intros Hs f Hsz. apply andb_true_iff in Hs as [Hs1 Hs2]. subst it. cbn [iok] in Hs1. cbn [map]. rewrite titem_value, enc_elems_value. cbv iota. cbn [app].
          rewrite (Hit Hs1 f DEFAULT_LEADING_VALUE_DECOR).
          -- rewrite (Henc Hs2 f); [|intros it0 Hin; apply Hsz; right; exact Hin].
             subst tr. rewrite (span_prints s j2 w j3 [] Hj2 S3). rewrite andb_true_r, <- Ec. rewrite <- !app_assoc. reflexivity.
          -- specialize (Hsz (IValue v0) (or_introl eq_refl)). rewrite titem_value in Hsz. cbn [item_size] in Hsz. lia.
  Qed.

  Lemma array_renderK i v i' : isrc s i -> array vr i = Ok v i' ->
    exists t l o, vtext t (AArr l) o /\ splits i t i' /\ isrc s i' /\ vrendK s v o /\ nonscalar v
                  /\ exists items tr c dec sp, v = VArray items tr c dec sp.
  Proof.
    unfold array. intros Hi H. apply bind_inv in H as (x & j1 & H1 & H). apply byte_inv in H1 as [_ S1].
    destruct (isrc_splits s i [x5b] j1 Hi S1) as [Hj1 _].
    apply bind_inv in H as (a & j2 & H2 & H). apply cut_err_inv in H2.
    destruct (array_values_renderK j1 a j2 Hj1 H2) as (body & l & ob & items & tr & c & dec & sp & -> & S2 & Hj2 & Hv & Henc).
    apply bind_inv in H as (y & j3 & H3 & H). apply context_inv, cut_err_inv, byte_inv in H3 as [_ S3].
    destruct (isrc_splits s j2 [x5d] j3 Hj2 S3) as [Hj3 _]. apply ret_inv in H as [-> ->].
    exists ([x5b] ++ body ++ [x5d]), l, ([x5b] ++ ob ++ [x5d]). split; [exact Hv|].
    split; [exact (splits_trans _ _ _ _ _ S1 (splits_trans _ _ _ _ _ S2 S3))|]. split; [exact Hj3|]. split; [|split; [exact I|eexists _, _, _, _, _; reflexivity]].
    unfold vrendK. rewrite (vok_array s). intros Hs fuel dflt Hf. unfold core in *. cbn [value_decorate] in *. rewrite tvalue_array in *.
    destruct fuel as [|f]; [lia|]. rewrite enc_array. unfold decor_prefix, decor_suffix. cbn [tdecor decor_new d_prefix d_suffix toraw traw].
    rewrite !raw_encode_empty. cbn [app]. rewrite ?app_nil_r.
    assert (Hsz : forall it, In it items -> item_size (titem s it) <= f).
    { intros it Hin. cbn [value_size] in Hf. pose proof (item_size_in (map (titem s) items) (titem s it) (in_map _ _ _ Hin)). lia. }
    specialize (Henc Hs f Hsz).
    replace (match map (titem s) items with [] => true | _ :: _ => false end) with (match items with [] => true | _ :: _ => false end)
      by (destruct items; reflexivity).
    rewrite <- Henc. rewrite <- !app_assoc. reflexivity.
  Qed.


  (* ---- inline tables: one pair -------------------------------------------------------------------------------------- *)
  Definition pkey (x : list key * (key * item)) : key := fst (snd x).

  (* a pair read at position `start` (after the brace or a comma), ending at `nend` (where the next comma or the
     closing brace stands): what it records, and what it prints as when its prefix keys are spelled as here *)
  Definition prendK (x : list key * (key * item)) (start : nat) (w0 body : bytes) (nend : nat) : Prop :=
    exists v j0 ja jb LS r eend,
      snd (snd x) = IValue v /\ undot v = true /\ iwf v = true /\
      key_at s j0 ja jb (fst x) (pkey x) LS r /\ N.to_nat (pos j0) = start + length w0 /\
      (forall d, decor_prefix (k_leaf (tkey s (pkey x))) d = w0) /\
      vend v = Some eend /\ nend = N.to_nat eend + length (decor_suffix (tdecor s (vdecor v)) []) /\ (pos ja < eend)%N /\
      (forall ks f dflt D z, pre_text s ks (pkey x) = pre_text s (fst x) (pkey x) -> vok s v = true -> value_size (tvalue s v) < f ->
         encode_key_path (map (tkey s) (ks ++ [pkey x])) D ++ [x3d] ++ encode_value f (tvalue s v) dflt ++ z = w0 ++ body ++ z).

  Lemma undot_decorate v p q : undot (value_decorate v p q) = undot v.
  Proof. destruct v; reflexivity. Qed.
  Lemma iwf_decorate v p q : iwf (value_decorate v p q) = iwf v.
  Proof. destruct v; reflexivity. Qed.
  Lemma span_decorate v p q : value_span (value_decorate v p q) = value_span v.
  Proof. destruct v; reflexivity. Qed.
  Lemma vdecor_decorate v p q : vdecor (value_decorate v p q) = decor_new p q.
  Proof. destruct v; reflexivity. Qed.

  Lemma inline_keyval_renderK i x i1 : isrc s i -> inline_keyval vr i = Ok x i1 ->
    exists w0 kt p w1 w2 t a o w3,
      ws_tok w0 /\ key_tok kt p /\ ws_tok w1 /\ ws_tok w2 /\ vtext t a o /\ ws_tok w3
      /\ splits i (w0 ++ (kt ++ w1 ++ [x3d] ++ w2 ++ t) ++ w3) i1 /\ isrc s i1
      /\ prendK x (N.to_nat (pos i)) w0 ((kt ++ w1 ++ [x3d] ++ w2 ++ o) ++ w3) (N.to_nat (pos i1)) /\ stops wschar (rest i1).
  Proof.
    rewrite inline_keyval_eq. intros Hi H. apply bind_inv in H as (kp & j1 & H1 & H).
    apply bind_inv in H as ([[prev v] suf] & j2 & H2 & H). unfold inline_kv_rhs in H2.
    apply cut_err_inv in H2. apply bind_inv in H2 as (y & k1 & E1 & H2). apply context_inv, byte_inv in E1 as [_ Se].
    destruct (key_line s i kp j1 k1 Hi H1 Se)
      as (path & k & j0 & ja & jb & w0 & w1 & Ekp & HKk & Hw0 & S0 & Skey & Hk1 & Hjb & Hkat & _ & ELP & Hkt).
    pose proof Hkat as (_ & _ & ELS & Hw1 & _ & _ & Hne & _).
    apply bind_inv in H2 as (pre' & k2 & E2 & H2). pose proof E2 as E2'. apply span_inv in E2' as (u2 & _ & Epre').
    apply span_ws_inv in E2 as (w2 & Hw2 & S2 & _). destruct (isrc_splits s k1 w2 k2 Hk1 S2) as [Hk2 _].
    apply bind_inv in H2 as (v' & k3 & E3 & H2). destruct (Hvr k2 v' k3 Hk2 E3) as (t & a & o & Ht & S3 & Hk3 & Hv & Hspan & Hud & Hwf).
    apply bind_inv in H2 as (suf' & k4 & E4 & H2). pose proof E4 as E4'. apply span_inv in E4' as (u4 & _ & Esuf).
    apply span_ws_inv in E4 as (w3 & Hw3 & S4 & Hst). destruct (isrc_splits s k3 w3 k4 Hk3 S4) as [Hk4 _].
    apply ret_inv in H2 as [E ->]. injection E as -> -> ->.
    rewrite Ekp, pop_key_app in H. apply ret_inv in H as [-> ->].
    exists w0, (pre_text s path k ++ krepr s k), (map k_key (path ++ [k])), w1, w2, t, a, o, w3. repeat (split; [assumption|]).
    split; [|split; [exact Hk4|split; [|exact Hst]]].
    - pose proof (splits_trans _ _ _ _ _ S0 (splits_trans _ _ _ _ _ Skey (splits_trans _ _ _ _ _ S2 (splits_trans _ _ _ _ _ S3 S4)))) as S.
      rewrite <- !app_assoc in *. exact S.
    - unfold prendK, pkey. cbn [fst snd]. subst pre' suf'.
      exists (value_decorate v' (raw_with_span (pos k1, pos k2)) (raw_with_span (pos k3, pos k4))), j0, ja, jb, w1, (rest k1), (pos k3).
      split; [reflexivity|]. split; [rewrite undot_decorate; exact Hud|]. split; [rewrite iwf_decorate; exact Hwf|]. split; [exact Hkat|].
      split; [rewrite (splits_pos _ _ _ S0); lia|]. split; [exact ELP|].
      split; [unfold vend; rewrite span_decorate, Hspan; reflexivity|].
      split.
      { rewrite vdecor_decorate. unfold decor_suffix, tdecor. cbn [decor_new d_suffix toraw]. rewrite (span_prints s k3 w3 k4 [] Hk3 S4), (ncr_ws w3 Hw3).
        rewrite (splits_pos _ _ _ S4). lia. }
      split; [pose proof (splits_le _ _ _ S2); pose proof (splits_le _ _ _ S3); lia|].
      intros ks f dflt D z Eks Hs Hf. rewrite vok_decorate in Hs.
      rewrite enc_split, ELP, ELS, Eks.
      rewrite (vrendK_decorated s v' o k1 w2 k2 k3 w3 k4 Hv Hk1 S2 Hk3 S4 Hs f dflt Hf).
      rewrite (ncr_ws w2 Hw2), (ncr_ws w3 Hw3). rewrite <- !app_assoc. reflexivity.
  Qed.

  (* ---- the pairs behind the first one ------------------------------------------------------------------------------------ *)
  (* b: where the brace / comma in front of the next pair stands; e: where the last pair ends *)
  Fixpoint chainB (prs : list (list key * (key * item))) (rows : list (bytes * bytes)) (b e : nat) : Prop :=
    match prs, rows with
    | [], [] => e = b
    | x :: tl, r :: rtl => exists nend, prendK x (b + 1) (fst r) (snd r) nend /\ chainB tl rtl nend e
    | _, _ => False
    end.

  Lemma inline_seps_renderK i1 prs i2 : isrc s i1 -> seps (inline_keyval vr) (byte_ INLINE_TABLE_SEP) i1 prs i2 ->
    stops wschar (rest i1) ->
    forall kt p w1 w2 t a o w3, key_tok kt p -> ws_tok w1 -> ws_tok w2 -> vtext t a o -> ws_tok w3 ->
    exists u l ou wl x,
      splits i1 x i2 /\ isrc s i2 /\ stops wschar (rest i2) /\ w3 ++ x = u ++ wl /\ ws_tok wl
      /\ iktext (kt ++ w1 ++ [x3d] ++ w2 ++ t ++ u) ((p, a) :: l) (kt ++ w1 ++ [x3d] ++ w2 ++ o ++ ou)
      /\ exists rows : list (bytes * bytes),
           chainB prs rows (N.to_nat (pos i1)) (N.to_nat (pos i2))
           /\ w3 ++ flat_map (fun r => [x2c] ++ fst r ++ snd r) rows = ou ++ wl.
  Proof.
    intros Hi R. induction R as [i F|i x j E Hlt F|i x j pr j2 prs i3 E Hlt E2 Hle R IH]; intros Hst0 kt p w1 w2 t a o w3 Hkt Hw1 Hw2 Ht Hw3.
    - exists [], [], [], w3, []. split; [apply splits_nil|]. split; [exact Hi|]. split; [exact Hst0|]. split; [rewrite !app_nil_r; reflexivity|]. split; [exact Hw3|].
      split; [rewrite !app_nil_r; apply ikt_last; assumption|]. exists []. split; [reflexivity|]. cbn [flat_map]. rewrite app_nil_r. reflexivity.
    - exists [], [], [], w3, []. split; [apply splits_nil|]. split; [exact Hi|]. split; [exact Hst0|]. split; [rewrite !app_nil_r; reflexivity|]. split; [exact Hw3|].
      split; [rewrite !app_nil_r; apply ikt_last; assumption|]. exists []. split; [reflexivity|]. cbn [flat_map]. rewrite app_nil_r. reflexivity.
    - apply byte_inv in E as [_ S1]. destruct (isrc_splits s i [x2c] j Hi S1) as [Hj _].
      destruct (inline_keyval_renderK j pr j2 Hj E2)
        as (w0' & kt' & p' & w1' & w2' & t' & a' & o' & w3' & Hw0' & Hkt' & Hw1' & Hw2' & Ht' & Hw3' & S2 & Hj2 & Hpr & Hst2).
      destruct (IH Hj2 Hst2 kt' p' w1' w2' t' a' o' w3' Hkt' Hw1' Hw2' Ht' Hw3') as (u & l & ou & wl & x' & Sx & Hi3 & Hst3 & Ex & Hwl & Hkv & rows & HF & Erows).
      exists (w3 ++ [x2c] ++ w0' ++ (kt' ++ w1' ++ [x3d] ++ w2' ++ t' ++ u)), ((p', a') :: l),
             (w3 ++ [x2c] ++ w0' ++ (kt' ++ w1' ++ [x3d] ++ w2' ++ o' ++ ou)), wl,
             (([x2c] ++ w0' ++ (kt' ++ w1' ++ [x3d] ++ w2' ++ t') ++ w3') ++ x').
      split; [exact (splits_trans _ _ _ _ _ (splits_trans _ _ _ _ _ S1 S2) Sx)|]. split; [exact Hi3|]. split; [exact Hst3|].
      split; [rewrite <- !app_assoc; rewrite Ex; reflexivity|]. split; [exact Hwl|]. split.
      + replace (kt ++ w1 ++ [x3d] ++ w2 ++ t ++ w3 ++ [x2c] ++ w0' ++ kt' ++ w1' ++ [x3d] ++ w2' ++ t' ++ u)
          with (kt ++ w1 ++ [x3d] ++ w2 ++ t ++ w3 ++ [x2c] ++ w0' ++ (kt' ++ w1' ++ [x3d] ++ w2' ++ t' ++ u)) by reflexivity.
        apply ikt_more; assumption.
      + exists ((w0', (kt' ++ w1' ++ [x3d] ++ w2' ++ o') ++ w3') :: rows). split.
        * cbn [chainB fst snd]. exists (N.to_nat (pos j2)). split; [|exact HF].
          assert (Ej : N.to_nat (pos j) = N.to_nat (pos i) + 1) by (rewrite (splits_pos _ _ _ S1); cbn [length]; lia). rewrite <- Ej. exact Hpr.
        * cbn [flat_map fst snd]. rewrite <- !app_assoc. do 8 f_equal. exact Erows.
  Qed.

  (* ---- a pair of the tree that is a pair read, spelled as read: what it prints ------------------------------------------------ *)
  Definition cmatch (c : list key * value) (x : list key * (key * item)) : Prop :=
    fst c <> [] /\ last (fst c) kdummy = pkey x /\ snd (snd x) = IValue (snd c)
    /\ pre_text s (removelast (fst c)) (pkey x) = pre_text s (fst x) (pkey x).

  Lemma pair_printsK c x start w0 body nend f dflt z :
    prendK x start w0 body nend -> cmatch c x -> vok s (snd c) = true -> value_size (tvalue s (snd c)) < f ->
    encode_key_path (map (tkey s) (fst c)) DEFAULT_INLINE_KEY_DECOR ++ [x3d] ++ encode_value f (tvalue s (snd c)) dflt ++ z = w0 ++ body ++ z.
  Proof.
    intros (v & j0 & ja & jb & LS & r & eend & Ev & _ & _ & _ & _ & _ & _ & _ & _ & Hprom) (Hne & Hl & Ec & Esp) Hok Hf.
    rewrite Ec in Ev. injection Ev as <-. rewrite (app_removelast_last kdummy Hne) at 1. rewrite Hl. apply (Hprom _ f dflt _ z Esp Hok Hf).
  Qed.

  (* the pairs print as their rows, a comma in front of each but the first *)
  Lemma enc_rowsK f len : forall ch prs rows b e i, chainB prs rows b e -> Forall2 cmatch ch prs ->
    Forall (fun c : list key * value => vok s (snd c) = true) ch -> Forall (fun c : list key * value => value_size (tvalue s (snd c)) < f) ch ->
    enc_kvs f len i (map (tline s) ch)
    = match rows with
      | [] => []
      | r :: rtl => (if Nat.eqb i 0 then [] else [x2c]) ++ fst r ++ snd r ++ flat_map (fun r => [x2c] ++ fst r ++ snd r) rtl
      end.
  Proof.
    induction ch as [|c ch IH]; intros prs rows b e i Hc HF Hok Hsz.
    - inversion HF; subst. destruct rows; [reflexivity|destruct Hc].
    - inversion HF as [|? x ? prs' Hm HF']; subst. destruct rows as [|r rows]; [destruct Hc|]. cbn [chainB] in Hc. destruct Hc as (nend & Hp & Hc).
      inversion Hok as [|? ? Ho Hok']; subst. inversion Hsz as [|? ? Hs Hsz']; subst.
      cbn [map enc_kvs]. unfold tline at 1. cbn [fst snd].
      rewrite (pair_printsK c x _ _ _ _ f _ _ Hp Hm Ho Hs). rewrite (IH prs' rows nend e (S i) Hc HF' Hok' Hsz').
      destruct rows; cbn [flat_map Nat.eqb]; rewrite <- ?app_assoc; reflexivity.
  Qed.

  (* ---- the pairs in print order follow each other as they were read: they are spelled as read -------------------------------- *)
  Lemma pair_kv_ok x start w0 body nend : prendK x start w0 body nend -> exists v, snd (snd x) = IValue v /\ pair_kv x = [(pkey x, v)].
  Proof. intros (v & j0 & ja & jb & LS & r & eend & Ev & _). exists v. split; [exact Ev|]. unfold pair_kv, pkey. rewrite Ev. reflexivity. Qed.

  Lemma chain_spell : forall ch prs rows b e, chainB prs rows b e ->
    map ipf ch = flat_map pair_kv prs -> Forall (fun c : list key * value => fst c <> []) ch ->
    chain_ok s (b + 1) ch = true -> Forall2 cmatch ch prs.
  Proof.
    induction ch as [|[kp e0] ch IH]; intros prs rows b e Hc Em Hne Hok.
    - destruct prs as [|x prs]; [constructor|]. destruct rows as [|r rows]; [destruct Hc|]. destruct Hc as (nend & Hp & _).
      destruct (pair_kv_ok _ _ _ _ _ Hp) as (v & _ & Ekv). cbn [flat_map map] in Em. rewrite Ekv in Em. discriminate.
    - destruct prs as [|x prs]; [discriminate|]. destruct rows as [|r rows]; [destruct Hc|]. cbn [chainB] in Hc. destruct Hc as (nend & Hp & Hc).
      destruct (pair_kv_ok _ _ _ _ _ Hp) as (v & Ev & Ekv). cbn [flat_map map] in Em. rewrite Ekv in Em. cbn [app] in Em. injection Em as El Ee Em.
      unfold ipf in El, Ee. cbn [fst snd] in El, Ee. inversion Hne as [|? ? Hkp Hne']; subst. cbn [fst] in Hkp.
      change (mkKey [] None decor_default decor_default) with kdummy in El. cbn [chain_ok] in Hok. rewrite El in Hok.
      destruct Hp as (v1 & j0 & ja & jb & LS & r0 & eend & Ev1 & _ & _ & (Hj0 & Rj & ELS & _ & Erepr & Eja & _) & Ej0 & ELP & Evend & Enend & _ & _).
      rewrite Ev in Ev1. injection Ev1 as <-. rewrite Erepr in Hok.
      rewrite Evend, (ELP []), (ELS []) in Hok. apply andb_true_iff in Hok as [Hok Hrest]. apply andb_true_iff in Hok as [Hanchor Hsw].
      apply Nat.eqb_eq in Hanchor.
      set (X := pre_text s (removelast kp) (pkey x)) in *. set (Y := pre_text s (fst x) (pkey x)) in *.
      assert (EXY : X = Y).
      { assert (Hlen : length X = length Y) by lia.
        rewrite <- Ej0 in Hsw. rewrite (isrc_skipn s j0 Hj0) in Hsw.
        unfold starts_with in Hsw. destruct (strip_prefix _ _) as [r1|] eqn:Q1; [|discriminate]. apply strip_prefix_spec in Q1.
        rewrite Rj in Q1. assert (Q2 : Y ++ (krepr s (pkey x) ++ LS ++ [x3d] ++ r0) = X ++ (krepr s (pkey x) ++ LS ++ [x3d] ++ r1))
          by (rewrite <- ?app_assoc in Q1; rewrite <- ?app_assoc; exact Q1).
        symmetry. apply (app_same_length _ _ _ _ Q2). lia. }
      constructor; [split; [exact Hkp|split; [exact El|split; [exact Ev|exact EXY]]]|].
      apply (IH prs rows nend e Hc Em Hne'). rewrite <- Hrest. f_equal. lia.
  Qed.

  (* ---- the pairs as read: in source order ------------------------------------------------------------------------------------ *)
  Lemma chain_sorted : forall prs rows b e, chainB prs rows b e ->
    Forall (fun kv : key * value => b < N.to_nat (kra (fst kv))) (flat_map pair_kv prs)
    /\ StronglySorted N.lt (map (fun kv : key * value => kra (fst kv)) (flat_map pair_kv prs))
    /\ Forall pair_ok prs.
  Proof.
    induction prs as [|x prs IH]; intros rows b e Hc; [repeat split; constructor|].
    destruct rows as [|r rows]; [destruct Hc|]. cbn [chainB] in Hc. destruct Hc as (nend & Hp & Hc).
    destruct (IH rows nend e Hc) as (Hlt & Hso & Hok). destruct (pair_kv_ok _ _ _ _ _ Hp) as (v & Ev & Ekv).
    destruct Hp as (v1 & j0 & ja & jb & LS & r0 & eend & Ev1 & Hud & Hwf & (_ & _ & _ & _ & Erepr & Eja & _) & Ej0 & _ & Evend & Enend & Hlt1 & _).
    assert (Ekra : kra (pkey x) = pos ja) by (unfold kra; rewrite Erepr; reflexivity).
    cbn [flat_map]. rewrite Ekv. cbn [app map fst]. rewrite Ekra. split; [|split].
    - constructor; [cbn [fst]; rewrite Ekra; lia|]. eapply Forall_impl; [|exact Hlt]. intros kv Hkv. cbn beta in Hkv. lia.
    - constructor; [exact Hso|]. rewrite Forall_map. eapply Forall_impl; [|exact Hlt]. intros kv Hkv. cbn beta in Hkv. lia.
    - constructor; [|exact Hok]. exists v1. auto.
  Qed.

  (* pairs with plain keys: the tree holds them in order *)
  Lemma chain_plain : forall prs rows b e, chainB prs rows b e -> Forall (fun x => fst x = []) prs ->
    exists kvl, prs = map plain_pair kvl /\ Forall (fun kv : key * value => undot (snd kv) = true) kvl.
  Proof.
    induction prs as [|x prs IH]; intros rows b e Hc Hp; [exists []; split; [reflexivity|constructor]|].
    destruct rows as [|r rows]; [destruct Hc|]. cbn [chainB] in Hc. destruct Hc as (nend & Hx & Hc). inversion Hp as [|? ? Hx0 Hp']; subst.
    destruct (IH rows nend e Hc Hp') as (kvl & -> & Hu). destruct Hx as (v & j0 & ja & jb & LS & r0 & eend & Ev & Hud & _).
    destruct x as [path [k it]]. cbn [fst snd] in *. subst path it. exists ((k, v) :: kvl). split; [reflexivity|constructor; assumption].
  Qed.

  Lemma ivi_plain kvl : Forall (fun kv : key * value => undot (snd kv) = true) kvl ->
    ivi (map mk_item kvl) [] = map (fun kv => ([fst kv], snd kv)) kvl.
  Proof.
    induction 1 as [|[k v] tl Hu _ IH]; [reflexivity|]. cbn [map]. unfold mk_item at 1. cbn [fst snd].
    change (ivi ((k, IValue v) :: map mk_item tl) []) with (ivv v [k] ++ ivi (map mk_item tl) []). rewrite IH.
    cbn [snd] in Hu. rewrite (ivv_leaf v [k] Hu). reflexivity.
  Qed.

  Lemma plain_cmatch kvl : Forall2 cmatch (map (fun kv : key * value => ([fst kv], snd kv)) kvl) (map plain_pair kvl).
  Proof.
    induction kvl as [|[k v] tl IH]; [constructor|]. cbn [map]. constructor; [|exact IH]. unfold cmatch, plain_pair, pkey. cbn [fst snd last removelast].
    repeat split. discriminate.
  Qed.

  Lemma has_bad_paths pairs m : table_from_pairs_loop_d [] pairs = COk m -> has_bad (inline_spans_pass m pairs) = false ->
    Forall (fun x => fst x = []) pairs.
  Proof.
    intros H Hb. apply Forall_forall. intros x Hin. destruct (fst x) as [|pk ptl] eqn:E; [reflexivity|]. exfalso.
    assert (Hb' : has_bad m = true).
    { apply (loop_d_bad pairs [] m H). right. apply Exists_exists. exists x. split; [exact Hin|]. rewrite E. discriminate. }
    rewrite <- (spans_pass_bad pairs m) in Hb'. congruence.
  Qed.

  (* the pairs of the table built from the pairs read, in print order, are those pairs spelled as read: either no
     key was dotted, or the layout check says so *)
  Lemma layout_cmatch prs rows a b0 e m :
    chainB prs rows (N.to_nat a) e -> table_from_pairs_loop_d [] prs = COk m ->
    layout_ok s (Some (a, b0)) (inline_spans_pass m prs) = true ->
    Forall2 cmatch (ivi (inline_spans_pass m prs) []) prs.
  Proof.
    intros Hchain El Hlay. destruct (chain_sorted _ _ _ _ Hchain) as (_ & Hsorted & Hpok).
    destruct (from_pairs_ivi prs m [] El Hpok) as [Hperm _]. set (items := inline_spans_pass m prs) in *.
    unfold layout_ok in Hlay. destruct (has_bad items) eqn:Hb; cbn [negb orb] in Hlay.
    - apply andb_true_iff in Hlay as [Hso Hch].
      apply (chain_spell (ivi items []) prs _ _ _ Hchain (pairs_eqK _ _ Hperm Hso Hsorted) (ivi_paths_ne items []) Hch).
    - destruct (chain_plain _ _ _ _ Hchain (has_bad_paths _ _ El Hb)) as (kvl & Ekv & Hu).
      rewrite Ekv in El. apply loop_d_plain in El. cbn [app] in El. unfold items. rewrite El, Ekv, spans_pass_plain.
      rewrite (ivi_plain kvl Hu). apply plain_cmatch.
  Qed.

  (* ---- an inline table ---------------------------------------------------------------------------------------------------------- *)
  Lemma inline_table_renderK i v i' : isrc s i -> inline_table vr i = Ok v i' ->
    exists t kvs o, vtext t (AInl kvs) o /\ splits i t i' /\ isrc s i' /\ nonscalar v
      /\ (forall b0, vrendK s (apply_raw v (pos i, b0)) o /\ undot (apply_raw v (pos i, b0)) = true /\ iwf (apply_raw v (pos i, b0)) = true).
  Proof.
    rewrite inline_table_eq. intros Hi H. apply bind_inv in H as (x & j1 & H1 & H). apply byte_inv in H1 as [_ S1].
    destruct (isrc_splits s i [x7b] j1 Hi S1) as [Hj1 _].
    apply bind_inv in H as (tv & j2 & H2 & H). apply cut_err_inv in H2. unfold inline_body in H2.
    apply try_map_inv in H2 as ([pairs pre] & H2 & Htm).
    apply bind_inv in H as (y & j3 & H3 & H). apply context_inv, cut_err_inv, byte_inv in H3 as [_ S3].
    apply ret_inv in H as [-> ->].
    unfold inline_kvs in H2. apply bind_inv in H2 as (kv & k1 & E1 & H2).
    apply bind_inv in H2 as (sp & k2 & E2 & H2). pose proof E2 as E2'. apply span_inv in E2' as (u2 & _ & Esp).
    apply span_ws_inv in E2 as (w & Hw & Sw & _). apply ret_inv in H2 as [E ->]. injection E as -> ->.
    apply (separated0_inv _ _ _ _ _ (mono_shrinking _ (inline_keyval_mono vr Hmono)) (byte_shrinking _)) in E1
      as [(-> & -> & _) | (pr & i1 & prs & -> & E & R)].
    - (* { blanks } *)
      destruct (isrc_splits s j1 w k2 Hj1 Sw) as [Hk2 _]. destruct (isrc_splits s k2 [x7d] j3 Hk2 S3) as [Hj3 _].
      exists ([x7b] ++ w ++ [x7d]), [], ([x7b] ++ w ++ [x7d]). split; [apply (vt_inline_empty w Hw)|].
      split; [exact (splits_trans _ _ _ _ _ S1 (splits_trans _ _ _ _ _ Sw S3))|]. split; [exact Hj3|].
      unfold table_from_pairs in Htm. cbn [table_from_pairs_loop_d inline_spans_pass fold_left] in Htm. injection Htm as <-. split; [exact I|].
      intro b0. split; [|split; reflexivity].
      intros _ fuel dflt Hf. destruct fuel as [|f]; [lia|].
      unfold core, apply_raw. cbn [value_decorate]. rewrite tvalue_inline, enc_inline. cbv zeta. cbn [map inline_values flat_map length enc_kvs].
      unfold decor_prefix, decor_suffix. cbn [tdecor decor_new d_prefix d_suffix toraw traw]. rewrite !raw_encode_empty.
      subst sp. rewrite (span_prints s j1 w k2 [] Hj1 Sw), (ncr_ws w Hw). cbn [app]. rewrite ?app_nil_r. reflexivity.
    - (* { pairs } *)
      destruct (inline_keyval_renderK j1 pr i1 Hj1 E) as (w0 & kt & p & w1 & w2 & t & a & o & w3 & Hw0 & Hkt & Hw1 & Hw2 & Ht & Hw3 & Sp & Hi1 & Hpr & Hst1).
      destruct (inline_seps_renderK i1 prs k1 Hi1 R Hst1 kt p w1 w2 t a o w3 Hkt Hw1 Hw2 Ht Hw3)
        as (u & l & ou & wl & x' & Sx & Hk1 & Hstk & Ex & Hwl & Hkv & rows & HF & Erows).
      pose proof (ws_stops_nil w k1 k2 Hw Sw Hstk) as Ew. subst w.
      assert (Ej : k2 = k1) by (destruct Sw as [_ ->]; apply adv_nil). subst k2.
      destruct (isrc_splits s k1 [x7d] j3 Hk1 S3) as [Hj3 _].
      exists ([x7b] ++ w0 ++ (kt ++ w1 ++ [x3d] ++ w2 ++ t ++ u) ++ wl ++ [x7d]), ((p, a) :: l),
             ([x7b] ++ w0 ++ (kt ++ w1 ++ [x3d] ++ w2 ++ o ++ ou) ++ wl ++ [x7d]).
      split; [apply vt_inline; assumption|]. split; [|split; [exact Hj3|]].
      + pose proof (splits_trans _ _ _ _ _ S1 (splits_trans _ _ _ _ _ (splits_trans _ _ _ _ _ Sp Sx) S3)) as S.
        assert (E2 : forall z, w3 ++ x' ++ z = u ++ wl ++ z) by (intro z; rewrite !app_assoc, Ex; reflexivity).
        rewrite <- !app_assoc in S. rewrite E2 in S. rewrite <- !app_assoc. exact S.
      + unfold table_from_pairs in Htm. destruct (table_from_pairs_loop_d [] (pr :: prs)) as [m| |] eqn:El; try discriminate.
        assert (Etv : tv = VInline (inline_spans_pass m (pr :: prs)) (raw_with_span sp) false false decor_default None)
          by (injection Htm as E0; symmetry; exact E0).
        clear Htm. subst tv. split; [exact I|]. intro b0. split; [|split; reflexivity].
        set (items := inline_spans_pass m (pr :: prs)) in *. set (body0 := (kt ++ w1 ++ [x3d] ++ w2 ++ o) ++ w3) in *.
        (* all pairs, from the brace on *)
        assert (Hchain : chainB (pr :: prs) ((w0, body0) :: rows) (N.to_nat (pos i)) (N.to_nat (pos k1))).
        { cbn [chainB fst snd]. exists (N.to_nat (pos i1)). split; [|exact HF].
          assert (Ej : N.to_nat (pos j1) = N.to_nat (pos i) + 1) by (rewrite (splits_pos _ _ _ S1); cbn [length]; lia). rewrite <- Ej. exact Hpr. }
        unfold vrendK, apply_raw. cbn [value_decorate]. rewrite vok_inline. cbn [orb]. intros Hs fuel dflt Hf.
        apply andb_true_iff in Hs as [Hitems Hlay].
        pose proof (layout_cmatch _ _ _ _ _ _ Hchain El Hlay) as HM. fold items in HM.
        destruct fuel as [|f]; [lia|]. unfold core in *. cbn [value_decorate] in *. rewrite tvalue_inline in *. rewrite enc_inline. cbv zeta.
        assert (Esz : value_size (VInline (map (tkv s) items) (traw s (raw_with_span sp)) false false (tdecor s (decor_new REmpty REmpty)) None)
                      = S (items_size (map (tkv s) items))) by reflexivity.
        rewrite Esz in *. rewrite (inline_values_ivi (S (S (items_size (map (tkv s) items)))) (map (tkv s) items) []) by lia.
        change (@nil key) with (map (tkey s) []) at 1 2. rewrite ivi_tkv, map_length.
        pose proof (ivi_ok s items [] Hitems) as Hoks.
        assert (Hszs : Forall (fun c : list key * value => value_size (tvalue s (snd c)) < f) (ivi items [])).
        { pose proof (ivi_size (map (tkv s) items) (map (tkey s) [])) as Hs0. rewrite ivi_tkv, Forall_map in Hs0.
          eapply Forall_impl; [|exact Hs0]. intros c Hc. unfold tline in Hc. cbn [snd] in Hc. lia. }
        unfold decor_prefix, decor_suffix. cbn [tdecor decor_new d_prefix d_suffix toraw traw]. rewrite !raw_encode_empty.
        subst sp. rewrite (span_prints s k1 [] k1 [] Hk1 Sw). cbn [ncr filter app]. rewrite ?app_nil_r.
        rewrite (enc_rowsK f _ _ _ _ _ _ 0 Hchain HM Hoks Hszs).
        match type of Erows with _ ++ ?X = _ => set (F := X) in * end.
        assert (E3 : forall z, w3 ++ F ++ z = ou ++ wl ++ z) by (intro z; rewrite !app_assoc, Erows; reflexivity).
        clearbody F. cbn [Nat.eqb]. unfold body0. cbn [fst snd]. repeat first [rewrite <- app_assoc | progress cbn [app]]. rewrite E3. reflexivity.
  Qed.

  (* ---- scalars and the dispatch ------------------------------------------------------------------------ *)
  (* before apply_raw a scalar has no repr yet: what is known is its text *)
  Definition vbody_rendK (a0 : N) (v : value) (t : bytes) (o : bytes) : Prop :=
    match v with
    | VScalar _ _ _ => o = t
    | _ => forall b0, vrendK s (apply_raw v (a0, b0)) o /\ undot (apply_raw v (a0, b0)) = true /\ iwf (apply_raw v (a0, b0)) = true
    end.

  Definition body_atK (p : parser value) : Prop :=
    forall i v i', isrc s i -> p i = Ok v i' ->
      exists t a o, vtext t a o /\ splits i t i' /\ isrc s i' /\ vbody_rendK (pos i) v t o.

  Lemma scalar_armK {A} (p : parser A) (mk : A -> scalar) :
    (forall i x i', p i = Ok x i' -> exists t a, scalar_text t a /\ splits i t i') ->
    body_atK (pmap (fun x => scalar_value (mk x)) p).
  Proof.
    intros Hp i v i' Hi H. apply pmap_inv in H as (x & H & ->). apply Hp in H as (t & a & Ht & S).
    exists t, a, t. split; [apply vt_scalar, Ht|]. split; [exact S|]. split; [apply (isrc_splits s i t i' Hi S)|reflexivity].
  Qed.

  Lemma string_arm_bodyK : body_atK (pmap (fun x => scalar_value (SString x)) string_).
  Proof. apply scalar_armK. intros i x i' H. apply string_sound in H as (t & Ht & S). exists t, (AStr x). split; [apply st_string, Ht|exact S]. Qed.
  Lemma integer_arm_bodyK : body_atK (pmap (fun z => scalar_value (SInt z)) integer).
  Proof. apply scalar_armK. intros i x i' H. apply integer_sound in H as (t & Ht & S & _). exists t, (AInt x). split; [apply st_integer, Ht|exact S]. Qed.
  Lemma float_arm_bodyK : body_atK (pmap (fun f => scalar_value (SFloat f)) float).
  Proof. apply scalar_armK. intros i x i' H. apply float_sound in H as (t & Ht & _ & S). exists t, (AFloat x). split; [apply st_float, Ht|exact S]. Qed.
  Lemma date_time_arm_bodyK : body_atK (pmap (fun d => scalar_value (SDatetime d)) date_time).
  Proof. apply scalar_armK. intros i x i' H. apply date_time_sound in H as (t & Ht & S). exists t, (ADate x). split; [apply st_date_time, Ht|exact S]. Qed.
  Lemma true_arm_bodyK : body_atK (pmap (fun v => scalar_value (SBool v)) true_).
  Proof.
    apply scalar_armK. intros i x i' H. apply true_sound in H as [-> S]. exists t_true, (ABool true).
    split; [apply st_boolean; left; auto|exact S].
  Qed.
  Lemma false_arm_bodyK : body_atK (pmap (fun v => scalar_value (SBool v)) false_).
  Proof.
    apply scalar_armK. intros i x i' H. apply false_sound in H as [-> S]. exists t_false, (ABool false).
    split; [apply st_boolean; right; auto|exact S].
  Qed.
  Lemma inf_arm_bodyK : body_atK (pmap (fun f => scalar_value (SFloat f)) inf).
  Proof.
    apply scalar_armK. intros i x i' H. unfold inf in H. apply pvalue_inv in H as (-> & y & H). apply lit_inv in H as [_ S].
    exists t_inf, (AFloat (FInf false)). split; [apply st_float, (float_inf [] false); left; auto|exact S].
  Qed.
  Lemma nan_arm_bodyK : body_atK (pmap (fun f => scalar_value (SFloat f)) nan).
  Proof.
    apply scalar_armK. intros i x i' H. unfold nan in H. apply pvalue_inv in H as (-> & y & H). apply lit_inv in H as [_ S].
    exists t_nan, (AFloat (FNan false)). split; [apply st_float, (float_nan [] false); left; auto|exact S].
  Qed.

  Lemma body_contextK p : body_atK p -> body_atK (context p).
  Proof. intros Hp i v i' Hi H. apply context_inv in H. apply (Hp i v i' Hi H). Qed.
  Lemma body_altK p q : body_atK p -> body_atK q -> body_atK (p <|> q).
  Proof. intros Hp Hq i v i' Hi H. apply alt_inv in H as [H | [_ H]]; [apply (Hp i v i' Hi H)|apply (Hq i v i' Hi H)]. Qed.
  Lemma body_failK : body_atK (context fail).
  Proof. intros i v i' _ H. apply context_inv in H. discriminate. Qed.

  Lemma core_apply_raw_nonscalarK v sp : nonscalar v -> core s (apply_raw v sp) = core s v.
  Proof.
    unfold core, apply_raw. destruct v as [x r d|vals tr c d sp0|items pre im dt d sp0]; [intros []| |]; intros _;
      cbn [value_decorate]; rewrite ?tvalue_array, ?tvalue_inline; reflexivity.
  Qed.

  Lemma array_arm_bodyK : body_atK (check_recursion (array vr)).
  Proof.
    intros i v i' Hi H. apply check_recursion_splits in H as (_ & i2 & H & Hs).
    destruct (array_renderK _ v i2 (isrc_set_depth s i _ Hi) H) as (t & l & o & Hv & S & _ & Hr & Hn & (items & tr & c & dec & sp & ->)).
    exists t, (AArr l), o. split; [exact Hv|]. split; [apply Hs, S|]. split; [apply (isrc_splits s i t i' Hi (Hs t S))|].
    cbn [vbody_rendK]. intro b0. split; [|split; reflexivity].
    unfold vrendK in *. rewrite (core_apply_raw_nonscalarK (VArray items tr c dec sp) _ I). unfold apply_raw. cbn [value_decorate]. rewrite (vok_array s) in *. exact Hr.
  Qed.

  Lemma inline_arm_bodyK : body_atK (check_recursion (inline_table vr)).
  Proof.
    intros i v i' Hi H. apply check_recursion_splits in H as (_ & i2 & H & Hs).
    destruct (inline_table_renderK _ v i2 (isrc_set_depth s i _ Hi) H) as (t & kvs & o & Hv & S & _ & Hn & Hr).
    exists t, (AInl kvs), o. split; [exact Hv|]. split; [apply Hs, S|]. split; [apply (isrc_splits s i t i' Hi (Hs t S))|].
    destruct v; [destruct Hn|exact Hr|exact Hr].
  Qed.

  Lemma value_arm_bodyK b : body_atK (value_arm vr b).
  Proof.
    unfold value_arm.
    repeat match goal with |- body_atK (if ?c then _ else _) => destruct c end;
      first [ apply string_arm_bodyK | apply array_arm_bodyK | apply inline_arm_bodyK
            | apply body_failK
            | apply body_contextK; first [apply integer_arm_bodyK | apply float_arm_bodyK | apply true_arm_bodyK
                                        | apply false_arm_bodyK | apply inf_arm_bodyK | apply nan_arm_bodyK]
            | idtac ].
    unfold number_arm. apply body_altK; [apply date_time_arm_bodyK|]. apply body_altK; [apply float_arm_bodyK|apply integer_arm_bodyK].
  Qed.

  Lemma value_body_bodyK : body_atK (value_body vr).
  Proof.
    intros i v i' Hi H. pose proof H as H0. unfold value_body in H0. apply bind_inv in H0 as (b & j & H1 & _).
    apply context_inv, peek_inv in H1 as [_ (j' & H1)]. apply any_inv in H1 as [R _]. cbn [app] in R.
    rewrite (value_body_arm vr i b _ R) in H. apply (value_arm_bodyK b i v i' Hi H).
  Qed.

  Lemma value_step_renderK : vrenderK_at s (value_step vr).
  Proof.
    intros i v i' Hi H. unfold value_step in H. apply pmap_inv in H as ([v0 sp] & H & ->).
    apply with_span_inv in H as (a0 & H & E). injection E as <- ->.
    destruct (value_body_bodyK i v0 i' Hi H) as (t & a & o & Ht & S & Hi' & Hb).
    assert (Hne : pos i <> pos i').
    { destruct (val_tok_head t a (vtext_val t a o Ht)) as (b & t' & -> & _). rewrite (splits_pos _ _ _ S). cbn [length]. lia. }
    exists t, a, o. split; [exact Ht|]. split; [exact S|]. split; [exact Hi'|].
    destruct v0 as [x r d|vals tr c d sp0|items pre im dt d sp0]; cbn [vbody_rendK] in Hb.
    - subst o. split; [|split; [|split; reflexivity]].
      + intros _ fuel dflt Hf. destruct fuel as [|f]; [lia|].
        unfold core, apply_raw. cbn [value_decorate]. rewrite tvalue_scalar, enc_scalar.
        rewrite (span_repr s i t i' Hi S). unfold decor_prefix, decor_suffix. cbn [tdecor decor_new d_prefix d_suffix toraw traw].
        rewrite !raw_encode_empty. cbn [app]. apply app_nil_r.
      + unfold apply_raw. cbn [value_decorate value_span]. unfold raw_with_span. cbn [fst snd]. destruct (pos i =? pos i')%N eqn:Q; [apply N.eqb_eq in Q; congruence|reflexivity].
    - destruct (Hb (pos i')) as (H1 & H2 & H3). split; [exact H1|]. split; [reflexivity|]. split; assumption.
    - destruct (Hb (pos i')) as (H1 & H2 & H3). split; [exact H1|]. split; [reflexivity|]. split; assumption.
  Qed.
End RenderK.

Lemma value_f_renderK s n : vrenderK_at s (value_f n).
Proof.
  induction n as [|n IH]; [intros i v i' _ H; discriminate|].
  change (value_f (S n)) with (value_step (value_f n)). apply value_step_renderK; [exact IH|apply (proj1 (value_f_all n))].
Qed.

(* C03 tiling for values, dotted keys inside inline tables included *)
Theorem value_renderK s i v i' : isrc s i -> value_ i = Ok v i' ->
  exists t a o, vtext t a o /\ splits i t i' /\ isrc s i' /\ vrendK s v o
                /\ value_span v = Some (pos i, pos i') /\ undot v = true /\ iwf v = true.
Proof. apply value_f_renderK. Qed.
