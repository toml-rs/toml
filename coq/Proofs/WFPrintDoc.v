(* Proofs/WFPrintDoc.v — WF backbone: the sections Display writes.  Each section of a well-formed tree is fit to print
   (`sec_ok`), and sections fit to print, written one after the other in any order, are a TOML text whose statements, as
   data, are the sections' own statements (header, then key/value lines), every one valid and within the limits
   (`derives_list`).  In the order of the walk (Model/Encode.v nested_tables) these are the statements of the tree
   (Proofs/WFSemDoc.v body_stmts of Proofs/WFTree.v sb_tbl): `root_stmts`. *)
From TV Require Import Base.Prelude Gen.Consts Spec.Defs Spec.Syntax Spec.WF.
From TV Require Import Model.Tree Model.Encode.
From TV Require Import Proofs.WFSem Proofs.WFSemDoc Proofs.WFPrintKey Proofs.WFPrintFlat
                       Proofs.WFTree Proofs.WFPrintLine.
From TV Require Import Proofs.KvFacts.
Require Import Lia.
From TV Require Import Base.ListFacts.

Local Notation section := (tbl * list key * bool)%type.

(* ---- what visit_table writes ------------------------------------------------------------------------------------------ *)
Definition no_lines (t : tbl) : bool := match tflat [] t with [] => true | _ => false end.
Definition hdr_printed (t : tbl) (path : list key) (arr : bool) : bool :=
  match path with [] => false | _ => arr || negb (t_implicit t && no_lines t) end.
Definition sec_text (t : tbl) (path : list key) (arr first : bool) : bytes :=
  (if hdr_printed t path arr then header_text path (t_decor t) arr first else [])
  ++ flat_map (fun pv => entry_text (fst pv) (snd pv)) (tflat [] t).

Lemma visit_table_text t path arr first : fst (visit_table t path arr first) = sec_text t path arr first.
Proof.
  unfold visit_table, sec_text, hdr_printed, no_lines, header_text, entry_text. rewrite section_lines_eq.
  assert (E : forall l : list (list key * value),
             flat_map (fun '(kp, v) => encode_key_path kp DEFAULT_KEY_DECOR ++ [x3d]
                                       ++ encode_value (S (value_size v)) v DEFAULT_VALUE_DECOR ++ [x0a]) l
             = flat_map (fun x => encode_key_path (fst x) DEFAULT_KEY_DECOR ++ [x3d]
                                  ++ encode_value (S (value_size (snd x))) (snd x) DEFAULT_VALUE_DECOR ++ [x0a]) l).
  { intro l. apply flat_map_ext. intros [kp v]. reflexivity. }
  rewrite E. clear E. generalize (tflat [] t). intro ch.
  destruct path as [|k0 path]; [destruct ch; reflexivity|].
  destruct arr; [reflexivity|].
  destruct (t_implicit t); destruct ch; reflexivity.
Qed.

(* the sections of a list, one after the other; the `first_table` flag is threaded *)
Fixpoint vts (l : list section) (first : bool) : bytes :=
  match l with
  | [] => []
  | (t, p, a) :: tl => fst (visit_table t p a first) ++ vts tl (snd (visit_table t p a first))
  end.
Fixpoint nfs (l : list section) (first : bool) : bool :=
  match l with
  | [] => first
  | (t, p, a) :: tl => nfs tl (snd (visit_table t p a first))
  end.
Lemma vts_app l1 l2 first : vts (l1 ++ l2) first = vts l1 first ++ vts l2 (nfs l1 first).
Proof.
  revert first. induction l1 as [|[[t p] a] l1 IH]; intro first; [reflexivity|]. cbn [app vts nfs]. rewrite IH, <- app_assoc. reflexivity.
Qed.
Lemma visit_tables_vts (l : list (N * section)) first : visit_tables l first = vts (map snd l) first.
Proof.
  revert first. induction l as [|[pos [[t p] a]] l IH]; intro first; [reflexivity|]. cbn [visit_tables map snd vts].
  destruct (visit_table t p a first) as [txt f'] eqn:E. cbn [fst snd]. rewrite IH. reflexivity.
Qed.

(* ---- derivations --------------------------------------------------------------------------------------------------------- *)
(* the sections L print, in front of any text that may follow a line break, as a text making statements whose data are G *)
Definition derives (L : list section) (G : list (stmt dval)) : Prop :=
  forall first rest l', tail_tok rest l' ->
    exists ls, tail_tok (vts L first ++ rest) (ls ++ l')
               /\ map stmt_den ls = G /\ forallb stmt_ok ls = true /\ within_limits ls = true.

Lemma derives_nil : derives [] [].
Proof. intros first rest l' H. exists []. repeat split; auto. Qed.
Lemma derives_app L1 L2 G1 G2 : derives L1 G1 -> derives L2 G2 -> derives (L1 ++ L2) (G1 ++ G2).
Proof.
  intros H1 H2 first rest l' Hrest. destruct (H2 (nfs L1 first) rest l' Hrest) as (ls2 & T2 & E2 & O2 & W2).
  destruct (H1 first _ _ T2) as (ls1 & T1 & E1 & O1 & W1). exists (ls1 ++ ls2).
  rewrite vts_app, <- !app_assoc. split; [exact T1|]. split; [rewrite map_app, E1, E2; reflexivity|].
  unfold within_limits in *. rewrite !forallb_app, O1, O2, W1, W2. auto.
Qed.

(* ---- the lines of a well-formed section are fit to print ----------------------------------------------------------- *)
Lemma value_line_ok parent k it :
  Forall (key_wf true) parent -> key_wf true k -> pair_wf true it -> line_lim (S (length parent)) it ->
  Forall (fun pv => line_ok (fst pv) (snd pv)) (iflat_item parent k it).
Proof.
  apply (iflat_item_all true line_lim line_ok).
  - intros n sub pre im d sp Hl. apply all_P_Forall, Hl.
  - intros p v Hv Hne Hp Hw Hl. rewrite (line_lim_plain _ _ Hv) in Hl. destruct Hl as [Hl1 Hl2]. repeat split; assumption.
Qed.

Lemma tbl_lim_items h n t :
  tbl_lim h n t ->
  forall k it, In (k, it) (t_items t) ->
    match it with
    | IValue _ => line_lim (S n) it
    | ITable sub => if t_dotted sub then tbl_lim (S h) (S n) sub else S h < LIMIT /\ tbl_lim (S h) 0 sub
    | IAot ts _ => S h < LIMIT /\ forall e, In e ts -> tbl_lim (S h) 0 e
    | INone => True
    end.
Proof.
  destruct t as [items d im dt p sp]. cbn [tbl_lim t_items]. intros Hall k it Hin. pose proof (all_P_In _ _ _ Hall Hin) as H. cbn [snd] in H.
  destruct it as [|v|sub|ts asp]; auto. destruct H as [H1 H2]. split; [exact H1|]. intros e He. exact (all_P_In _ _ _ H2 He).
Qed.

Lemma tflat_line_ok : forall t parent top h,
  tbl_wf top t -> tbl_lim h (length parent) t -> Forall (key_wf true) parent ->
  Forall (fun pv => line_ok (fst pv) (snd pv)) (tflat parent t).
Proof.
  induction t as [items d im dt p sp IH] using tbl_sub_ind. intros parent top h Hw Hl Hp.
  destruct (tbl_wf_items top _ Hw) as [_ Hit]. pose proof (tbl_lim_items _ _ _ Hl) as Hli. cbn [t_items] in *.
  rewrite tflat_eq. cbn [t_items]. apply Forall_flat_map, Forall_forall. intros [k it] Hin. cbn [fst snd].
  destruct (Hit k it Hin) as [Hk Hi]. specialize (Hli k it Hin). rewrite Forall_forall in IH. specialize (IH _ Hin). cbn [snd] in IH.
  destruct it as [|v|sub|ts asp]; cbn [tflat_item]; try constructor.
  - exact (value_line_ok parent k (IValue v) Hp Hk Hi Hli).
  - destruct Hi as [Hs _]. destruct (t_dotted sub); [|constructor].
    apply (IH (parent ++ [k]) false (S h)); [exact Hs|rewrite last_length; exact Hli|apply Forall_snoc; assumption].
Qed.

(* a table without lines of its own: `shown` is what visit_table tests *)
Lemma no_lines_has_line top t : tbl_wf top t -> no_lines t = negb (has_line t).
Proof.
  intro Hw. unfold no_lines. pose proof (tflat_lines t) as E. pose proof (has_line_dpart top t Hw) as [H1 H2].
  destruct (has_line t) eqn:Eh; cbn [negb].
  - assert (Hd : dpart dval (sb_tbl t) <> []) by (intro Hd; specialize (H2 Hd); discriminate).
    pose proof (dflat_nonempty dval _ Hd (proj2 (dpart_wf dval _ (tbl_swf t top Hw)))) as Hf.
    destruct (tflat [] t); [|reflexivity]. cbn [map] in E. congruence.
  - rewrite (H1 eq_refl) in E. cbn in E. apply map_eq_nil in E. rewrite E. reflexivity.
Qed.
Lemma hdr_printed_shown top t path arr : tbl_wf top t -> path <> [] -> hdr_printed t path arr = arr || shown t.
Proof. intros Hw Hp. unfold hdr_printed, shown. rewrite (no_lines_has_line top t Hw). destruct path; [congruence|reflexivity]. Qed.

(* ---- one section --------------------------------------------------------------------------------------------------------- *)
Definition own_hdr (t : tbl) (path : list key) (arr : bool) : list (stmt dval) :=
  if hdr_printed t path arr then [if arr then SArrHeader (ktexts path) else SHeader (ktexts path)] else [].
(* its own statements: the header if one is written, then the key/value lines *)
Definition sec_stmts (x : section) : list (stmt dval) :=
  own_hdr (fst (fst x)) (snd (fst x)) (snd x) ++ line_stmts dval (sb_tbl (fst (fst x))).
(* what printing a section asks of it *)
Definition sec_ok (x : section) : Prop :=
  exists top, tbl_wf top (fst (fst x)) /\ tbl_lim (length (snd (fst x))) 0 (fst (fst x))
              /\ (snd (fst x) <> [] -> top = false /\ Forall (key_wf true) (snd (fst x)) /\ length (snd (fst x)) < LIMIT).

Lemma own_derives x : sec_ok x -> derives [x] (sec_stmts x).
Proof.
  destruct x as [[t path] arr]. unfold sec_ok, sec_stmts. cbn [fst snd]. intros (top & Hw & Hl & Hp) first rest l' Hrest.
  cbn [vts]. rewrite app_nil_r, visit_table_text. unfold sec_text. rewrite <- app_assoc.
  destruct (entries_tail (tflat [] t) rest l' (tflat_line_ok t [] top (length path) Hw Hl (Forall_nil _)) Hrest) as (ls & T & E & O & W).
  assert (EL : map stmt_den ls = line_stmts dval (sb_tbl t)).
  { rewrite E. unfold line_stmts. rewrite <- tflat_lines, map_map. reflexivity. }
  unfold own_hdr. destruct (hdr_printed t path arr) eqn:Eh.
  - assert (Hne : path <> []) by (unfold hdr_printed in Eh; destruct path; [discriminate|discriminate]).
    destruct (Hp Hne) as (-> & Hks & Hlen).
    assert (Hd : decor_ok SLines SLineTrail (t_decor t)) by (destruct t; exact (proj1 Hw)).
    pose proof (header_tail path (t_decor t) arr first _ _ Hne Hks Hd Hlen T) as TH.
    exists ((if arr then SArrHeader (ktexts path) else SHeader (ktexts path)) :: ls). split; [exact TH|].
    split; [cbn [map app]; rewrite EL; destruct arr; reflexivity|]. unfold within_limits in *. cbn [forallb].
    rewrite O, W. unfold ktexts. apply Nat.ltb_lt in Hlen. destruct arr; cbn [stmt_ok stmt_within]; rewrite map_length, Hlen; auto.
  - exists ls. cbn [app]. auto.
Qed.
(* sections fit to print, in any order *)
Lemma derives_list L : Forall sec_ok L -> derives L (flat_map sec_stmts L).
Proof.
  induction 1 as [|x L Hx _ IH]; [apply derives_nil|]. cbn [flat_map]. change (x :: L) with ([x] ++ L).
  apply derives_app; [apply own_derives, Hx|exact IH].
Qed.

(* ---- all sections of a table ------------------------------------------------------------------------------------------------ *)
Definition sub_sections (path : list key) (kv : key * item) : list section :=
  match snd kv with
  | ITable sub => sections sub (path ++ [fst kv]) false
  | IAot ts _ => flat_map (fun sub => sections sub (path ++ [fst kv]) true) ts
  | _ => []
  end.
Lemma sections_eq t path arr :
  sections t path arr = (if t_dotted t then [] else [(t, path, arr)]) ++ flat_map (sub_sections path) (t_items t).
Proof. destruct t; reflexivity. Qed.

Lemma ktexts_snoc path k : ktexts (path ++ [k]) = ktexts path ++ [k_key k].
Proof. unfold ktexts. rewrite map_app. reflexivity. Qed.

(* every section of a well-formed tree is fit to print *)
Lemma sections_ok : forall t top path arr n,
  tbl_wf top t -> tbl_lim (length path) n t -> Forall (key_wf true) path -> (path <> [] -> top = false) ->
  (t_dotted t = false -> (path <> [] -> length path < LIMIT) /\ tbl_lim (length path) 0 t) ->
  Forall sec_ok (sections t path arr).
Proof.
  induction t as [items d im dt p sp IH] using tbl_sub_ind. intros top path arr n Hw Hl Hp Htop Hnd.
  rewrite sections_eq. apply Forall_app. split.
  - cbn [t_dotted]. destruct dt; [constructor|]. destruct (Hnd eq_refl) as [Hlen Hl0]. constructor; [|constructor].
    exists top. cbn [fst snd]. split; [exact Hw|]. split; [exact Hl0|]. intro Hne. auto.
  - destruct (tbl_wf_items top _ Hw) as [_ Hit]. pose proof (tbl_lim_items _ _ _ Hl) as Hli. cbn [t_items] in *.
    apply Forall_flat_map, Forall_forall. intros [k it] Hin.
    destruct (Hit k it Hin) as [Hk Hi]. specialize (Hli k it Hin). rewrite Forall_forall in IH. specialize (IH _ Hin). cbn [snd] in IH.
    assert (Hpk : Forall (key_wf true) (path ++ [k])) by (apply Forall_snoc; assumption).
    unfold sub_sections. cbn [fst snd]. destruct it as [|v|sub|ts asp]; try constructor.
    + destruct Hi as [Hs _]. destruct (t_dotted sub) eqn:Ed.
      * apply (IH false (path ++ [k]) false (S n) Hs); [rewrite last_length; exact Hli|exact Hpk|auto|intro X; congruence].
      * destruct Hli as [Hh Hls]. apply (IH false (path ++ [k]) false 0 Hs); [rewrite last_length; exact Hls|exact Hpk|auto|].
        intros _. rewrite last_length. auto.
    + destruct Hi as [_ Hts]. destruct Hli as [Hh Hls]. apply Forall_flat_map, Forall_forall. intros e He.
      rewrite Forall_forall in IH. destruct (Hts e He) as [Ed Hwe].
      apply (IH e He false (path ++ [k]) true 0 Hwe); [rewrite last_length; apply Hls, He|exact Hpk|auto|].
      intros _. rewrite last_length. auto.
Qed.
Lemma root_sections_ok root : t_dotted root = false -> tbl_wf true root -> tbl_lim 0 0 root -> Forall sec_ok (sections root [] false).
Proof.
  intros _ Hw Hl. apply (sections_ok root true [] false 0 Hw Hl (Forall_nil _)); [intro H; congruence|].
  intros _. split; [intro H; congruence|exact Hl].
Qed.

(* ---- in the order of the walk, the own statements of the sections are the statements of the tree ----------------------- *)
Definition stm (t : tbl) (path : list key) (arr : bool) : list (stmt dval) :=
  if t_dotted t then secs dval (ktexts path) (sb_tbl t)
  else own_hdr t path arr ++ body_stmts dval (ktexts path) (sb_tbl t).
Definition walk_stmts (t : tbl) : Prop :=
  forall path arr, tbl_wf false t -> path <> [] -> flat_map sec_stmts (sections t path arr) = stm t path arr.

(* the sub-sections of a table, given those of its sub-tables *)
Lemma subs_stmts t top path :
  Forall (fun kv : key * item => match snd kv with ITable sub => walk_stmts sub | IAot ts _ => Forall walk_stmts ts | _ => True end) (t_items t) ->
  tbl_wf top t ->
  flat_map sec_stmts (flat_map (sub_sections path) (t_items t)) = secs dval (ktexts path) (sb_tbl t).
Proof.
  intros IH Hw. rewrite secs_sb_tbl, flat_map_flat_map. destruct (tbl_wf_items top _ Hw) as [_ Hit].
  apply flat_map_ext_in. intros [k it] Hin. rewrite Forall_forall in IH. specialize (IH _ Hin). cbn [snd fst] in *.
  destruct (Hit k it Hin) as [_ Hi].
  assert (Hne : path ++ [k] <> []) by (destruct path; discriminate).
  unfold sub_sections. cbn [snd fst]. rewrite <- ktexts_snoc. destruct it as [|v|sub|ts asp]; cbn [sn_item].
  - contradiction.
  - rewrite node_secs_sn_dn. reflexivity.
  - destruct Hi as [Hs _]. rewrite (IH (path ++ [k]) false Hs Hne). unfold stm. destruct (t_dotted sub).
    + destruct (has_line sub) eqn:Hln; [rewrite node_secs_SD; reflexivity|].
      (* no line left: the table is only mentioned by the headers below it *)
      rewrite node_secs_ST. unfold body_stmts, line_stmts. rewrite (proj1 (has_line_dpart false sub Hs) Hln). reflexivity.
    + rewrite node_secs_ST. unfold own_hdr. rewrite (hdr_printed_shown false sub _ false Hs Hne). destruct (shown sub); reflexivity.
  - destruct Hi as [_ Hts]. rewrite node_secs_SA, flat_map_flat_map, flat_map_map.
    apply flat_map_ext_in. intros e He. rewrite Forall_forall in IH. destruct (Hts e He) as [Ed Hwe].
    rewrite (IH e He (path ++ [k]) true Hwe Hne). unfold stm, own_hdr. rewrite Ed, (hdr_printed_shown false e _ true Hwe Hne). reflexivity.
Qed.

Theorem sections_stmts : forall t, walk_stmts t.
Proof.
  induction t as [items d im dt p sp IH] using tbl_sub_ind. intros path arr Hw Hne.
  rewrite sections_eq, flat_map_app, (subs_stmts (Tbl items d im dt p sp) false path IH Hw). unfold stm. cbn [t_dotted]. destruct dt; [reflexivity|].
  cbn [flat_map]. rewrite app_nil_r. unfold sec_stmts, body_stmts. cbn [fst snd]. rewrite app_assoc. reflexivity.
Qed.

Theorem root_stmts root :
  t_dotted root = false -> tbl_wf true root -> flat_map sec_stmts (sections root [] false) = body_stmts dval [] (sb_tbl root).
Proof.
  intros Hd Hw. rewrite sections_eq, Hd, flat_map_app, (subs_stmts root true []); [cbn [flat_map]; rewrite app_nil_r; reflexivity| |exact Hw].
  apply Forall_forall. intros [k it] _. cbn [snd]. destruct it; auto; [apply sections_stmts|]. apply Forall_forall. intros e _. apply sections_stmts.
Qed.
