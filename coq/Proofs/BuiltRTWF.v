(* Proofs/BuiltRTWF.v — C06: whatever the constructors assemble (`eval_value`, `eval_item`, `eval_doc` over
   the construction terms of Model/Build.v) is inside `BuiltValue` / `BuiltItem` / `BuiltTbl`. *)
From TV Require Import Base.Prelude Base.Utf8 Base.Winnow Gen.Consts.
From TV Require Import Model.Datetime Model.Numbers Model.Tree Model.Write Model.Encode Model.Build.
Require Import Lia ZifyBool ZifyN ZifyNat.
From TV Require Import Base.ListFacts.

(* ---- association lists keyed by bytes: insert = replace in place or append ------------------------------- *)
Fixpoint l_insert {V} (l : list (bytes * V)) (k : bytes) (v : V) : list (bytes * V) :=
  match l with
  | [] => [(k, v)]
  | (k', v') :: tl => if bytes_eqb k' k then (k', v) :: tl else (k', v') :: l_insert tl k v
  end.

Lemma l_insert_keys {V} (l : list (bytes * V)) k v :
  map fst (l_insert l k v) = if existsb (bytes_eqb k) (map fst l) then map fst l else map fst l ++ [k].
Proof.
  induction l as [|[k' v'] l IH]; [reflexivity|]. cbn [l_insert map fst existsb].
  destruct (bytes_eqb k' k) eqn:E.
  - apply bytes_eqb_eq in E. subst. rewrite bytes_eqb_refl. reflexivity.
  - assert (E' : bytes_eqb k k' = false).
    { destruct (bytes_eqb k k') eqn:E2; [apply bytes_eqb_eq in E2; subst; rewrite bytes_eqb_refl in E; discriminate|reflexivity]. }
    rewrite E'. cbn [orb map fst]. rewrite IH. destruct (existsb _ _); reflexivity.
Qed.

Lemma existsb_false_notin k ks : existsb (bytes_eqb k) ks = false -> ~ In k ks.
Proof.
  induction ks as [|x ks IH]; [auto|]. cbn [existsb In]. intros H [-> | Hin].
  - rewrite bytes_eqb_refl in H. discriminate.
  - apply orb_false_iff in H as [_ H]. exact (IH H Hin).
Qed.

Lemma l_insert_nodup {V} (l : list (bytes * V)) k v : NoDup (map fst l) -> NoDup (map fst (l_insert l k v)).
Proof.
  intro H. rewrite l_insert_keys. destruct (existsb _ _) eqn:E; [exact H|].
  apply NoDup_snoc; [exact H|apply existsb_false_notin, E].
Qed.

Lemma l_insert_forall {V} (P : V -> Prop) (l : list (bytes * V)) k v :
  Forall P (map snd l) -> P v -> Forall P (map snd (l_insert l k v)).
Proof.
  intros Hl Hv. induction l as [|[k' v'] l IH]; [constructor; [exact Hv|constructor]|].
  cbn [map snd] in Hl. inversion Hl as [|? ? H1 H2]; subst. cbn [l_insert].
  destruct (bytes_eqb k' k); cbn [map snd]; constructor; auto.
Qed.
Lemma l_insert_keys_forall {V} (P : bytes -> Prop) (l : list (bytes * V)) k v :
  Forall P (map fst l) -> P k -> Forall P (map fst (l_insert l k v)).
Proof.
  intros Hl Hk. rewrite l_insert_keys. destruct (existsb _ _); [exact Hl|].
  apply Forall_app. split; [exact Hl|constructor; [exact Hk|constructor]].
Qed.

(* IndexMap entry insert / map insert on constructed entries: their keys are fresh from Key::new, so keeping the
   stored key (insert) or its text (entry) is the same *)
Lemma kv_insert_new {A} (g : A -> item) (l : list (bytes * A)) k v :
  let mk := map (fun kv => (key_new (fst kv), g (snd kv))) in
  kv_insert (mk l) k (g v) = mk (l_insert l k v) /\ kv_map_insert (mk l) k (g v) = mk (l_insert l k v).
Proof.
  cbv zeta. induction l as [|[k' v'] l [IH1 IH2]]; [split; reflexivity|].
  cbn [map fst snd kv_insert kv_map_insert l_insert k_key key_new]. destruct (bytes_eqb k' k); cbn [map fst snd]; [split; reflexivity|].
  rewrite IH1, IH2. split; reflexivity.
Qed.

Lemma kv_insert_inline l k v : kv_insert (mk_inline_items l) k (IValue v) = mk_inline_items (l_insert l k v).
Proof. exact (proj1 (kv_insert_new IValue l k v)). Qed.
Lemma kv_map_insert_inline l k v : kv_map_insert (mk_inline_items l) k (IValue v) = mk_inline_items (l_insert l k v).
Proof. exact (proj2 (kv_insert_new IValue l k v)). Qed.
Lemma kv_insert_tbl l k it : kv_insert (mk_tbl_items l) k it = mk_tbl_items (l_insert l k it).
Proof. exact (proj1 (kv_insert_new (fun x => x) l k it)). Qed.

(* the entries of a construction term, evaluated by f: the same keys, and what holds of every f a *)
Lemma evaluated_entries {A B} (f : A -> B) (PK : bytes -> Prop) (Q : B -> Prop) (l : list (bytes * A)) :
  Forall PK (map fst l) -> Forall (fun a => Q (f a)) (map snd l) ->
  Forall PK (map fst (map (fun kv => (fst kv, f (snd kv))) l)) /\ Forall Q (map snd (map (fun kv => (fst kv, f (snd kv))) l)).
Proof. intros Hk Hv. rewrite !map_map. split; [exact Hk|]. rewrite Forall_map in Hv |- *. exact Hv. Qed.

(* ---- admissible construction terms ------------------------------------------------------------------------ *)
Section WF.
  Variable PS : scalar -> Prop.
  Variable PK : bytes -> Prop.

  Inductive cval_ok : cval -> Prop :=
  | CO_scalar s : PS s -> cval_ok (CScalar s)
  | CO_arrp es : Forall cval_ok es -> cval_ok (CArrPush es)
  | CO_arrc es : Forall cval_ok es -> cval_ok (CArrCollect es)
  | CO_inli l : Forall PK (map fst l) -> Forall cval_ok (map snd l) -> cval_ok (CInlInsert l)
  | CO_inlc l : Forall PK (map fst l) -> Forall cval_ok (map snd l) -> cval_ok (CInlCollect l).

  Inductive citem_ok : citem -> Prop :=
  | CI_value v : cval_ok v -> citem_ok (CValue v)
  | CI_table l : Forall PK (map fst l) -> Forall citem_ok (map snd l) -> citem_ok (CTable l)
  | CI_aot ts : Forall (fun l => Forall PK (map fst l) /\ Forall citem_ok (map snd l)) ts -> citem_ok (CAot ts).

  Lemma cval_ok_strong (P : cval -> Prop) :
    (forall s, PS s -> P (CScalar s)) ->
    (forall es, Forall P es -> P (CArrPush es)) ->
    (forall es, Forall P es -> P (CArrCollect es)) ->
    (forall l, Forall PK (map fst l) -> Forall P (map snd l) -> P (CInlInsert l)) ->
    (forall l, Forall PK (map fst l) -> Forall P (map snd l) -> P (CInlCollect l)) ->
    forall c, cval_ok c -> P c.
  Proof.
    intros H1 H2 H3 H4 H5. fix IH 2. intros c Hc.
    destruct Hc as [s Hs | es Hes | es Hes | l Hk Hl | l Hk Hl].
    - apply H1, Hs.
    - apply H2. induction Hes; constructor; [apply IH; assumption|assumption].
    - apply H3. induction Hes; constructor; [apply IH; assumption|assumption].
    - apply H4; [exact Hk|]. induction Hl; constructor; [apply IH; assumption|assumption].
    - apply H5; [exact Hk|]. induction Hl; constructor; [apply IH; assumption|assumption].
  Qed.

  Local Notation BV := (BuiltValue PS PK).

  Lemma decorate_built v p s :
    BV v -> decor_built (decor_new p s) -> BV (value_decorate v p s).
  Proof.
    intros Hv Hd. destruct Hv as [x d Hx _ | es d _ Hes | es d _ Hes | l d _ Hnd Hk Hl]; cbn [value_decorate]; constructor; assumption.
  Qed.

  Lemma array_op_built vals v : BV v -> BV (array_value_op vals v).
  Proof.
    intro Hv. unfold array_value_op, value_decorate_str. destruct vals; apply decorate_built; try exact Hv;
      split; cbn; [right; left|right|right; right|right]; reflexivity.
  Qed.

  Definition fresh (v : value) : Prop := BV v /\ value_decor v = decor_default.

  Lemma push_all_built vs : Forall BV vs -> forall es,
    Forall BV es ->
    exists es', fold_left array_push vs (VArray (map IValue es) REmpty false decor_default None)
                = VArray (map IValue es') REmpty false decor_default None /\ Forall BV es'.
  Proof.
    induction 1 as [|v vs Hv _ IH]; intros es Hes; [exists es; auto|].
    cbn [fold_left array_push].
    replace (map IValue es ++ [IValue (array_value_op (map IValue es) v)])
      with (map IValue (es ++ [array_value_op (map IValue es) v])) by (rewrite map_app; reflexivity).
    apply IH. apply Forall_app. split; [exact Hes|]. constructor; [apply array_op_built, Hv|constructor].
  Qed.

  Lemma insert_all_built kvl : Forall PK (map fst kvl) -> Forall BV (map snd kvl) -> forall l,
    NoDup (map fst l) -> Forall PK (map fst l) -> Forall BV (map snd l) ->
    exists l', fold_left (fun t kv => inline_insert_api t (fst kv) (snd kv)) kvl
                         (VInline (mk_inline_items l) REmpty false false decor_default None)
               = VInline (mk_inline_items l') REmpty false false decor_default None
               /\ NoDup (map fst l') /\ Forall PK (map fst l') /\ Forall BV (map snd l').
  Proof.
    induction kvl as [|[k v] kvl IH]; intros Hk Hv l H1 H2 H3; [exists l; auto|].
    cbn [map fst snd] in Hk, Hv. inversion Hk; subst. inversion Hv; subst.
    cbn [fold_left inline_insert_api fst snd]. rewrite kv_insert_inline.
    apply IH; auto using l_insert_nodup, l_insert_forall, l_insert_keys_forall.
  Qed.

  Lemma collect_all_built kvl : Forall PK (map fst kvl) -> Forall BV (map snd kvl) -> forall l,
    NoDup (map fst l) -> Forall PK (map fst l) -> Forall BV (map snd l) ->
    exists l', fold_left (fun m kv => kv_map_insert m (fst kv) (IValue (snd kv))) kvl (mk_inline_items l)
               = mk_inline_items l'
               /\ NoDup (map fst l') /\ Forall PK (map fst l') /\ Forall BV (map snd l').
  Proof.
    induction kvl as [|[k v] kvl IH]; intros Hk Hv l H1 H2 H3; [exists l; auto|].
    cbn [map fst snd] in Hk, Hv. inversion Hk; subst. inversion Hv; subst.
    cbn [fold_left fst snd]. rewrite kv_map_insert_inline.
    apply IH; auto using l_insert_nodup, l_insert_forall, l_insert_keys_forall.
  Qed.

  (* C06_built_WF, values: everything the value constructors assemble is a BuiltValue with default decor *)
  Theorem eval_value_built : forall c, cval_ok c -> fresh (eval_value c).
  Proof.
    apply cval_ok_strong.
    - intros s Hs. split; [constructor; [exact Hs|split; left; reflexivity]|reflexivity].
    - intros es IH. cbn [eval_value].
      assert (Hvs : Forall BV (map eval_value es)).
      { apply Forall_forall. intros v Hv. apply in_map_iff in Hv as (c & <- & Hc). rewrite Forall_forall in IH. apply IH, Hc. }
      destruct (push_all_built _ Hvs [] (Forall_nil _)) as (es' & E & Hes'). unfold array_new.
      change (@nil item) with (map IValue []). rewrite E.
      split; [constructor; [split; left; reflexivity|exact Hes']|reflexivity].
    - intros es IH. cbn [eval_value]. unfold array_from_iter.
      split; [|reflexivity]. constructor; [split; left; reflexivity|].
      apply Forall_forall. intros v Hv. apply in_map_iff in Hv as (c & <- & Hc). rewrite Forall_forall in IH. apply IH, Hc.
    - intros l Hk IH. cbn [eval_value].
      destruct (evaluated_entries eval_value PK BV l Hk (Forall_impl _ (fun c => @proj1 _ _) IH)) as [Hk' Hv'].
      destruct (insert_all_built _ Hk' Hv' [] (NoDup_nil _) (Forall_nil _) (Forall_nil _)) as (l' & E & H1 & H2 & H3).
      unfold inline_new. change (@nil (key * item)) with (mk_inline_items []). rewrite E.
      split; [constructor; auto; split; left; reflexivity|reflexivity].
    - intros l Hk IH. cbn [eval_value]. unfold inline_from_iter.
      destruct (evaluated_entries eval_value PK BV l Hk (Forall_impl _ (fun c => @proj1 _ _) IH)) as [Hk' Hv'].
      destruct (collect_all_built _ Hk' Hv' [] (NoDup_nil _) (Forall_nil _) (Forall_nil _)) as (l' & E & H1 & H2 & H3).
      change (@nil (key * item)) with (mk_inline_items []). rewrite E.
      split; [constructor; auto; split; left; reflexivity|reflexivity].
  Qed.
End WF.

(* ---- tables, arrays of tables, documents ------------------------------------------------------------------------- *)
Section WFItems.
  Variable PS : scalar -> Prop.
  Variable PK : bytes -> Prop.
  Local Notation cval_ok := (cval_ok PS PK).
  Local Notation citem_ok := (citem_ok PS PK).
  Local Notation BI := (BuiltItem PS PK).
  Local Notation BE := (BuiltEntries PS PK).

  Definition centries_ok (l : list (bytes * citem)) : Prop := Forall PK (map fst l) /\ Forall citem_ok (map snd l).

  Lemma citem_ok_strong (P : citem -> Prop) :
    (forall v, cval_ok v -> P (CValue v)) ->
    (forall l, Forall PK (map fst l) -> Forall P (map snd l) -> P (CTable l)) ->
    (forall ts, Forall (fun l => Forall PK (map fst l) /\ Forall P (map snd l)) ts -> P (CAot ts)) ->
    forall c, citem_ok c -> P c.
  Proof.
    intros H1 H2 H3. fix IH 2. intros c Hc. destruct Hc as [v Hv | l Hk Hl | ts Hts].
    - apply H1, Hv.
    - apply H2; [exact Hk|]. induction Hl; constructor; [apply IH; assumption|assumption].
    - apply H3. induction Hts as [|l ts [Hk Hl] _ IHts]; constructor; [|exact IHts].
      split; [exact Hk|]. induction Hl; constructor; [apply IH; assumption|assumption].
  Qed.

  Definition mk_tbl (l : list (bytes * item)) (pos : option N) : tbl :=
    Tbl (mk_tbl_items l) decor_default false false pos None.

  Lemma tbl_of_built kvl : Forall PK (map fst kvl) -> Forall BI (map snd kvl) -> forall l pos,
    BE l -> exists l', tbl_of (mk_tbl l pos) kvl = mk_tbl l' pos /\ BE l'.
  Proof.
    induction kvl as [|[k it] kvl IH]; intros Hk Hv l pos Hl; [exists l; auto|].
    cbn [map fst snd] in Hk, Hv. inversion Hk; subst. inversion Hv; subst.
    unfold tbl_of. cbn [fold_left fst snd]. unfold tbl_insert, mk_tbl. cbn [t_items t_set_items].
    rewrite kv_insert_tbl. apply IH; auto.
    destruct Hl as [l Hnd Hkl Hil]. constructor; auto using l_insert_nodup, l_insert_forall, l_insert_keys_forall.
  Qed.

  Lemma BE_nil : BE [].
  Proof. constructor; constructor. Qed.

  Theorem eval_item_built : forall c, citem_ok c -> BI (eval_item c).
  Proof.
    apply citem_ok_strong.
    - intros v Hv. cbn [eval_item]. constructor. apply (eval_value_built PS PK v Hv).
    - intros l Hk IH. cbn [eval_item].
      destruct (evaluated_entries eval_item PK BI l Hk IH) as [Hk' Hv'].
      destruct (tbl_of_built _ Hk' Hv' [] None BE_nil) as (l' & E & Hl').
      change tbl_new with (mk_tbl [] None). rewrite E. apply (BI_table PS PK false l' Hl'). discriminate.
    - intros ts IH. cbn [eval_item].
      assert (G : forall tbls, Forall (fun t => exists l', t = mk_tbl l' None /\ BE l') tbls -> forall ls0, Forall BE ls0 ->
                exists ls', fold_left aot_push tbls (IAot (map (fun l => mk_tbl l None) ls0) None)
                            = IAot (map (fun l => mk_tbl l None) ls') None /\ Forall BE ls').
      { induction 1 as [|t tbls (l' & -> & Hl') _ IHt]; intros ls0 Hls0; [exists ls0; auto|].
        cbn [fold_left aot_push].
        replace (map (fun l => mk_tbl l None) ls0 ++ [mk_tbl l' None]) with (map (fun l => mk_tbl l None) (ls0 ++ [l']))
          by (rewrite map_app; reflexivity).
        apply IHt. apply Forall_app. split; [exact Hls0|constructor; [exact Hl'|constructor]]. }
      destruct (G (map (fun l => tbl_of tbl_new (map (fun kv => (fst kv, eval_item (snd kv))) l)) ts)) with (ls0 := @nil (list (bytes * item)))
        as (ls' & E & Hls').
      + apply Forall_forall. intros t Ht. apply in_map_iff in Ht as (l & <- & Hl).
        rewrite Forall_forall in IH. destruct (IH l Hl) as [Hk Hi].
        destruct (evaluated_entries eval_item PK BI l Hk Hi) as [Hk' Hv'].
        change tbl_new with (mk_tbl [] None). apply (tbl_of_built _ Hk' Hv' [] None BE_nil).
      + constructor.
      + unfold aot_new. change (@nil tbl) with (map (fun l : list (bytes * item) => mk_tbl l None) []). rewrite E.
        replace (map (fun l => mk_tbl l None) ls')
          with (map (fun x : bool * list (bytes * item) => Tbl (mk_tbl_items (snd x)) decor_default (fst x) false None None)
                    (map (fun l => (false, l)) ls')) by (rewrite map_map; reflexivity).
        constructor. apply Forall_forall. intros x Hx. apply in_map_iff in Hx as (l0 & <- & Hl0). cbn [snd].
        rewrite Forall_forall in Hls'. apply Hls', Hl0.
  Qed.

  (* C06_built_WF, documents *)
  Theorem eval_doc_built from_table l : centries_ok l -> BuiltTbl PS PK (eval_doc from_table l).
  Proof.
    intros [Hk Hl]. unfold eval_doc.
    destruct (evaluated_entries eval_item PK BI l Hk (Forall_impl _ eval_item_built Hl)) as [Hk' Hv'].
    destruct from_table.
    - destruct (tbl_of_built _ Hk' Hv' [] None BE_nil) as (l' & E & Hl').
      change tbl_new with (mk_tbl [] None). rewrite E. exists l', false, None. auto.
    - destruct (tbl_of_built _ Hk' Hv' [] (Some 0%N) BE_nil) as (l' & E & Hl').
      change doc_root_new with (mk_tbl [] (Some 0%N)). rewrite E. exists l', false, (Some 0%N). auto.
  Qed.
End WFItems.
