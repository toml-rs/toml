(* Proofs/SerdeRTRoutes.v — C07: the statement of DESIGN.md 6/C07 over the routes, assembled from
   Proofs/SerdeRTRoot.v (document routes) and Proofs/SerdeRTTv.v (try_from routes). *)
From TV Require Import Base.Prelude Spec.SerdeData Model.Ser Model.De Proofs.SerdeRTRoot.

Inductive route : Set :=
| EditPlain | EditPretty | ToDocument      (* toml_edit::ser::{to_string, to_string_pretty, to_document} *)
| TomlPlain | TomlPretty                   (* toml::{to_string, to_string_pretty} *)
| ValueTryFrom | TableTryFrom.             (* toml::Value::try_from, toml::Table::try_from *)

Definition ser_route (r : route) : ty -> sval -> result tomlval :=
  match r with
  | EditPlain | EditPretty | ToDocument => ser_edit_root
  | TomlPlain | TomlPretty => ser_toml_root
  | ValueTryFrom => tv_ser
  | TableTryFrom => tv_ser_table
  end.
Definition de_route (r : route) : ty -> tomlval -> result sval :=
  match r with
  | ValueTryFrom | TableTryFrom => tv_de        (* Value::try_into / Table::try_into *)
  | _ => de_value                               (* from_str / from_document of either crate *)
  end.
Definition doc_route (r : route) : bool :=
  match r with ValueTryFrom | TableTryFrom => false | _ => true end.
Definition root_ok (r : route) (t : ty) (v : sval) : bool :=
  match r with
  | EditPlain | EditPretty | ToDocument => table_shaped t v
  | TomlPlain | TomlPretty => toml_root_shaped t v
  | ValueTryFrom | TableTryFrom => true
  end.

(* the documented reasons for an error on a document route *)
Definition documented (r : route) (t : ty) (v : sval) (e : err) : Prop :=
  unsupported CElem t v e
  \/ (e = EUnsupportedType None /\ root_ok r t v = false)
  \/ ((r = TomlPlain \/ r = TomlPretty) /\ exists n, e = EUnsupportedType (Some n) /\ root_struct_variant t v n).

Theorem roundtrip_doc_routes r t v : doc_route r = true -> has_type v t ->
  match ser_route r t v with
  | Err e => documented r t v e
  | Ok out => exists v', de_route r t out = Ok v' /\ sval_eq v v'
  end.
Proof.
  intros Hr Hty. destruct r; try discriminate Hr; simpl ser_route; simpl de_route.
  1-3: destruct (ser_edit_root t v) as [out|e] eqn:E;
       [apply (edit_root_roundtrip t v out Hty E)
       |destruct (edit_root_errors t v e Hty E) as [U|[-> S]]; [left; exact U|right; left; split; [reflexivity|exact S]]].
  1-2: destruct (ser_toml_root t v) as [out|e] eqn:E;
       [apply (toml_root_roundtrip t v out Hty E)
       |destruct (toml_root_errors t v e Hty E) as [U|[[-> S]|(n & -> & Hn)]];
         [left; exact U|right; left; split; [reflexivity|exact S]|right; right; split; [auto|exists n; auto]]].
Qed.

Theorem supported_doc_routes r t v : doc_route r = true -> has_type v t -> supported t v -> root_ok r t v = true ->
  exists out, ser_route r t v = Ok out.
Proof.
  intros Hr Hty Hs Hroot. destruct r; try discriminate Hr; simpl in *.
  1-3: apply edit_root_supported; assumption.
  1-2: apply toml_root_supported; assumption.
Qed.
