(* Proofs/DepthLex.v — lemmas behind Props/C05.v, part 2: the lexical parsers (trivia, strings,
   date-times, numbers, keys) return the RecursionCheck counter they were started with: each is
   `mono` (Proofs/NoPanicLex.v). *)
From Coq Require Import List Bool Arith NArith ZArith Lia.
From Coq.Strings Require Import Byte.

From TV Require Import Model.Trivia Model.Strings Model.Datetime Model.Numbers Model.Parse.
From TV Require Import Proofs.NoPanicBase Proofs.NoPanicLex Proofs.DepthBase.
Import ListNotations.

(* ---- trivia ---------------------------------------------------------------------------- *)
Lemma dp_comment : dp comment.
Proof. apply mono_dp. np. Qed.
Lemma dp_newline : dp newline.
Proof. apply mono_dp. np. Qed.
Lemma dp_ws_newline : dp ws_newline.
Proof. apply mono_dp. np. Qed.
Lemma dp_ws_newlines : dp ws_newlines.
Proof. apply mono_dp. np. Qed.
Lemma dp_ws_comment_newline : dp ws_comment_newline.
Proof. apply mono_dp. np. Qed.
Lemma dp_line_ending : dp line_ending.
Proof. apply mono_dp. np. Qed.
Lemma dp_line_trailing : dp line_trailing.
Proof. apply mono_dp. np. Qed.

(* ---- strings --------------------------------------------------------------------------- *)
Lemma dp_hexescape n : dp (hexescape n).
Proof. apply mono_dp. np. Qed.
Lemma dp_escape_seq_char : dp escape_seq_char.
Proof. apply mono_dp. np. Qed.
Lemma dp_escaped : dp escaped.
Proof. apply mono_dp. np. Qed.
Lemma dp_basic_chars : dp basic_chars.
Proof. apply mono_dp. np. Qed.
Lemma dp_basic_string : dp basic_string.
Proof. apply mono_dp. np. Qed.
Lemma dp_mlb_escaped_nl : dp mlb_escaped_nl.
Proof. apply mono_dp. np. Qed.
Lemma dp_ml_basic_body : dp ml_basic_body.
Proof. apply mono_dp. np. Qed.
Lemma dp_ml_basic_string : dp ml_basic_string.
Proof. apply mono_dp. np. Qed.
Lemma dp_literal_string : dp literal_string.
Proof. apply mono_dp. np. Qed.
Lemma dp_mll_content : dp mll_content.
Proof. apply mono_dp. np. Qed.
Lemma dp_ml_literal_body : dp ml_literal_body.
Proof. apply mono_dp. np. Qed.
Lemma dp_ml_literal_string : dp ml_literal_string.
Proof. apply mono_dp. np. Qed.
Lemma dp_string : dp string_.
Proof. apply mono_dp. np. Qed.

(* ---- date-times ------------------------------------------------------------------------ *)
Lemma dp_unsigned_digits m n : dp (unsigned_digits m n).
Proof. apply mono_dp. np. Qed.
Lemma dp_date_fullyear : dp date_fullyear.
Proof. apply mono_dp. np. Qed.
Lemma dp_date_month : dp date_month.
Proof. apply mono_dp, two_digit_field_mono. Qed.
Lemma dp_date_mday : dp date_mday.
Proof. apply mono_dp, two_digit_field_mono. Qed.
Lemma dp_time_hour : dp time_hour.
Proof. apply mono_dp, two_digit_field_mono. Qed.
Lemma dp_time_minute : dp time_minute.
Proof. apply mono_dp, two_digit_field_mono. Qed.
Lemma dp_time_second : dp time_second.
Proof. apply mono_dp, two_digit_field_mono. Qed.
Lemma dp_full_date : dp full_date.
Proof. apply mono_dp. np. Qed.
Lemma dp_time_secfrac : dp time_secfrac.
Proof. apply mono_dp. np. Qed.
Lemma dp_partial_time : dp partial_time.
Proof. apply mono_dp. np. Qed.
Lemma dp_time_offset : dp time_offset.
Proof. apply mono_dp. np. Qed.
Lemma dp_time_delim : dp time_delim.
Proof. apply mono_dp. np. Qed.
Lemma dp_date_time : dp date_time.
Proof. apply mono_dp. np. Qed.

(* ---- numbers --------------------------------------------------------------------------- *)
Lemma dp_true : dp true_.
Proof. apply mono_dp. np. Qed.
Lemma dp_false : dp false_.
Proof. apply mono_dp. np. Qed.
Lemma dp_digit : dp digit.
Proof. apply mono_dp. np. Qed.
Lemma dp_hexdig : dp hexdig.
Proof. apply mono_dp. np. Qed.
Lemma dp_dec_int : dp dec_int.
Proof. apply mono_dp. np. Qed.
Lemma dp_hex_int : dp hex_int.
Proof. apply mono_dp. np. Qed.
Lemma dp_oct_int : dp oct_int.
Proof. apply mono_dp. np. Qed.
Lemma dp_bin_int : dp bin_int.
Proof. apply mono_dp. np. Qed.
Lemma dp_integer : dp integer.
Proof. apply mono_dp. np. Qed.
Lemma dp_zero_prefixable_int : dp zero_prefixable_int.
Proof. apply mono_dp. np. Qed.
Lemma dp_frac : dp frac.
Proof. apply mono_dp. np. Qed.
Lemma dp_exp : dp exp.
Proof. apply mono_dp. np. Qed.
Lemma dp_float_ : dp float_.
Proof. apply mono_dp. np. Qed.
Lemma dp_inf : dp inf.
Proof. apply mono_dp. np. Qed.
Lemma dp_nan : dp nan.
Proof. apply mono_dp. np. Qed.
Lemma dp_special_float : dp special_float.
Proof. apply mono_dp. np. Qed.
Lemma dp_float : dp float.
Proof. apply mono_dp. np. Qed.

(* ---- keys ------------------------------------------------------------------------------ *)
Lemma dp_unquoted_key : dp unquoted_key.
Proof. apply mono_dp. np. Qed.
Lemma dp_simple_key : dp simple_key.
Proof. apply mono_dp. np. Qed.
Lemma dp_key_part : dp key_part.
Proof. apply mono_dp. np. Qed.
Lemma dp_key : dp key_.
Proof. apply mono_dp. np. Qed.
