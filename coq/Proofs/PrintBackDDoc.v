(* Proofs/PrintBackDDoc.v — C03, class (d): the parse of a document whose key/value lines may have dotted
   keys.  The invariant of the loop of document.rs: the print items of the tree are, as a multiset, the
   headers and key/value lines read so far, each with its position in the source and its text. *)
From TV Require Import Base.Prelude Base.Winnow Gen.Consts Spec.Lex Spec.Defs Spec.Syntax.
From TV Require Import Model.Tree Model.Parse Model.Document Model.Encode.
From TV Require Import Proofs.LexEquivBase Proofs.LexEquivTrivia Proofs.LexEquivKey Proofs.GrammarBase
                       Proofs.GrammarValueBase Proofs.GrammarValueSound Proofs.GrammarDocLine Proofs.GrammarDoc
                       Proofs.TilingDefs Proofs.PrintBackBase Proofs.PrintBackEnc Proofs.PrintBackKey Proofs.PrintBackDoc
                       Proofs.PrintBackEnts
                       Proofs.PrintBackHKey Proofs.PrintBackSecDoc
                       Proofs.PrintBackDVals Proofs.PrintBackDAll Proofs.PrintBackDState Proofs.PrintBackDKey Proofs.PrintBackIValue Proofs.PrintBackDItems.
From TV Require Import Proofs.TilingNormScan Proofs.TilingNormStr Proofs.TilingNormTok Proofs.TilingCmt.
From TV Require Import Proofs.DocumentOps.
Require Import Lia ZifyBool ZifyN ZifyNat Sorting.Sorted Sorting.Permutation.

Section DDoc.
  Variable s : bytes.
  Notation K := (hkey s).

  Definition at_start (i0 : input) : Prop := rest i0 = [] \/ lstart s (N.to_nat (pos i0)).
  (* the pending text is made of complete lines and blanks (unless the document ends in it) *)
  Definition pend_ok (i : input) (pend : bytes) : Prop := rest i = [] \/ exists cp, cj anyf (ncr pend) cp.

  Lemma newline_at_start m1 le m2 : isrc s m1 -> splits m1 le m2 -> newline_tok le -> at_start m2.
  Proof.
    intros (p & Es & Ep) [R E] Hn. right. right. rewrite E, pos_adv, Ep.
    destruct Hn as [-> | ->].
    - exists p, (rest m2). split; [rewrite Es, R; reflexivity|]. cbn [length]. lia.
    - exists (p ++ [x0d]), (rest m2). split; [rewrite Es, R, <- !app_assoc; reflexivity|]. rewrite app_length. cbn [length]. lia.
  Qed.

  Lemma lend_at_start m1 le m2 : isrc s m1 -> splits m1 le m2 -> lend le (rest m2) -> at_start m2.
  Proof. intros Hm S [Hn | [-> Hr]]; [apply (newline_at_start m1 le m2 Hm S Hn)|left; exact Hr]. Qed.

  Lemma pre_text_with_prefix ks k P : pre_text s ks (with_prefix k P) = pre_text s ks k.
  Proof.
    assert (Hm : forall r, mid_text s r (with_prefix k P) = mid_text s r k) by (induction r as [|a r IH]; [reflexivity|cbn [mid_text]; rewrite IH; reflexivity]).
    destruct ks as [|a r]; [reflexivity|]. cbn [pre_text]. rewrite Hm. reflexivity.
  Qed.
  Lemma krepr_with_prefix k P : krepr s (with_prefix k P) = krepr s k.
  Proof. reflexivity. Qed.
  Lemma suffix_with_prefix k P d : decor_suffix (k_leaf (tkey s (with_prefix k P))) d = decor_suffix (k_leaf (tkey s k)) d.
  Proof. reflexivity. Qed.
  Lemma prefix_with_prefix k P d : decor_prefix (k_leaf (tkey s (with_prefix k P))) d = raw_encode (traw s P) [].
  Proof. rewrite tkey_fields. unfold decor_prefix, tdecor. cbn [with_prefix set_leaf k_leaf d_prefix toraw]. apply raw_encode_traw. Qed.

  Lemma key_at_with_prefix j0 ja jb po k P LS r : key_at s j0 ja jb po k LS r -> key_at s j0 ja jb po (with_prefix k P) LS r.
  Proof. unfold key_at. rewrite pre_text_with_prefix. exact (fun H => H). Qed.

  (* ---- one key = value line, any key path ------------------------------------------------------------------------ *)
  Lemma parse_keyval_render_d i x i1 : isrc s i -> parse_keyval i = Ok x i1 ->
    exists path k v j0 ja jb w0 w1 w2 t a o w c le r,
      x = (path, (k, IValue v))
      /\ ws_tok w0 /\ ws_tok w2 /\ vtext t a o /\ ws_tok w /\ opt_comment c
      /\ key_tok (pre_text s path k ++ krepr s k) (map k_key (path ++ [k]))
      /\ splits i w0 j0 /\ splits i (w0 ++ (((pre_text s path k ++ krepr s k) ++ w1 ++ [x3d] ++ w2 ++ t) ++ w ++ c) ++ le) i1
      /\ lend le (rest i1) /\ isrc s i1 /\ at_start i1
      /\ key_at s j0 ja jb path k w1 r /\ K k /\ (pos ja < pos i1)%N
      /\ d_prefix (k_leaf k) = Some (raw_with_span (pos i, pos j0))
      /\ val_fact v
      /\ (vok s v = true -> forall ks P z, pre_text s ks k = pre_text s path k ->
            dline s (ks ++ [with_prefix k P], v) ++ z
            = raw_encode (traw s P) [] ++ (((pre_text s path k ++ krepr s k) ++ w1 ++ [x3d] ++ w2 ++ o) ++ w ++ c) ++ [x0a] ++ z).
  Proof.
    rewrite parse_keyval_unfold. intros Hi H. apply bind_inv in H as (kp & j1 & H1 & H).
    apply bind_inv in H as ([[prev v] suf] & j2 & H2 & H).
    apply cut_err_inv in H2. apply bind_inv in H2 as (y & k1 & E1 & H2). apply context_inv, byte_inv in E1 as [_ Se].
    destruct (key_line s i kp j1 k1 Hi H1 Se)
      as (path & k & j0 & ja & jb & w0 & w1 & Ekp & HKk & Hw0 & S0 & Skey & Hk1 & Hjb & Hkat & Epre & _ & Hkt).
    pose proof Hkat as (_ & _ & ELS & Hw1 & _ & _ & Hne & _).
    (* the rest of the line *)
    apply bind_inv in H2 as (pre' & k2 & E2 & H2). pose proof E2 as E2'. apply span_inv in E2' as (u2 & _ & Epre').
    apply span_ws_inv in E2 as (w2 & Hw2 & S2 & _). destruct (isrc_splits s k1 w2 k2 Hk1 S2) as [Hk2 _].
    apply bind_inv in H2 as (v' & k3 & E3 & H2). destruct (value_renderK s k2 v' k3 Hk2 E3) as (t & a & o & Ht & S3 & Hk3 & Hv & _).
    apply bind_inv in H2 as (suf' & k4 & E4 & H2). apply context_inv in E4. rewrite line_trailing_unfold in E4.
    apply bind_inv in E4 as (sp & m1 & F1 & E4). pose proof F1 as F1'. apply span_inv in F1' as (u4 & _ & Esp).
    apply span_inv in F1 as (oc & F1 & _). apply bind_inv in F1 as (w & n1 & Fw & F1). apply ws_sound in Fw as (Hw & Sw & _).
    apply bind_inv in E4 as (u5 & m2 & F2 & E4). apply line_ending_sound in F2 as (le & Sle & Hl). apply ret_inv in E4 as [-> ->].
    assert (Hc : exists c, opt_comment c /\ splits n1 c m1).
    { apply opt_inv in F1 as [(x0 & -> & F1) | (-> & -> & _)].
      - apply comment_sound in F1 as (c & Hc & Sc & _). exists c. split; [right; exact Hc|exact Sc].
      - exists []. split; [left; reflexivity|apply splits_nil]. }
    destruct Hc as (c & Hc & Sc). pose proof (splits_trans _ _ _ _ _ Sw Sc) as Swc.
    destruct (isrc_splits s k3 (w ++ c) m1 Hk3 Swc) as [Hm1 _]. destruct (isrc_splits s m1 le m2 Hm1 Sle) as [Hm2 _].
    apply ret_inv in H2 as [E ->]. injection E as -> -> ->.
    rewrite Ekp, pop_key_app in H. apply ret_inv in H as [-> ->].
    exists path, k, (value_decorate v' (raw_with_span pre') (raw_with_span sp)), j0, ja, jb, w0, w1, w2, t, a, o, w, c, le, (rest k1).
    pose proof (splits_trans _ _ _ _ _ S2 (splits_trans _ _ _ _ _ S3 (splits_trans _ _ _ _ _ Swc Sle))) as Sval.
    split; [reflexivity|]. repeat (split; [assumption|]).
    split; [pose proof (splits_trans _ _ _ _ _ S0 (splits_trans _ _ _ _ _ Skey Sval)) as S; rewrite <- !app_assoc in *; exact S|].
    split; [exact Hl|]. split; [exact Hm2|]. split; [apply (lend_at_start m1 le m2 Hm1 Sle Hl)|].
    split; [exact Hkat|]. split; [exact HKk|]. split; [pose proof (splits_le _ _ _ Sval); lia|]. split; [exact Epre|].
    split.
    { destruct (GrammarValueSound.value_sound k2 v' k3 E3) as (tv0 & av0 & Htv0 & _ & (Hv1 & Hv2 & _ & Hv4 & _)).
      exists tv0, av0. rewrite absv_decorate, vwf_decorate. auto. }
    intros Hs ks P z Eks. rewrite vok_decorate in Hs. unfold dline. cbn [fst snd].
    rewrite enc_split, prefix_with_prefix, suffix_with_prefix, ELS, krepr_with_prefix, pre_text_with_prefix, Eks.
    subst pre' sp.
    rewrite (vrendK_decorated s v' o k1 w2 k2 k3 (w ++ c) m1 Hv Hk1 S2 Hk3 Swc Hs _ DEFAULT_VALUE_DECOR (Nat.lt_succ_diag_r _)).
    rewrite (ncr_ws w2 Hw2), ncr_app, (ncr_ws w Hw), (ncr_opt_comment c Hc).
    repeat first [rewrite <- app_assoc | progress cbn [app]]. reflexivity.
  Qed.

  (* the line as an item: the pending text and the blanks in front of the key path become the prefix of its
     last key; `body` is the line from the key path on, B0 what follows the key path in it *)
  Lemma kv_item i0 pend i w0 j0 ja jb path k v w1 r body B0 ct :
    isrc s i0 -> splits i0 pend i -> at_start i0 -> pend_ok i pend -> splits i w0 j0 -> ws_tok w0 ->
    key_at s j0 ja jb path k w1 r -> K k -> val_fact v ->
    (vok s v = true -> forall ks P z, pre_text s ks k = pre_text s path k ->
       dline s (ks ++ [with_prefix k P], v) ++ z = raw_encode (traw s P) [] ++ body ++ [x0a] ++ z) ->
    body = (pre_text s path k ++ krepr s k) ++ B0 -> cj anyf (B0 ++ [x0a]) ct -> (forall z, qstop ((B0 ++ [x0a]) ++ z)) ->
    let it := (PL (with_prefix k (raw_with_span (pos i0, pos j0))) v, (ncr pend ++ w0) ++ body ++ [x0a]) in
    sitem_ok s it /\ sitem_cj s it.
  Proof.
    intros Hi0 Sp Hst Hpo S0 Hw0 Hkat HKk Hvf Hline Ebody HB0 HqB.
    set (P0 := raw_with_span (pos i0, pos j0)). set (k' := with_prefix k P0). cbv zeta.
    assert (HP : raw_encode (traw s P0) [] = ncr pend ++ w0).
    { unfold P0. rewrite (span_prints s i0 (pend ++ w0) j0 [] Hi0 (splits_trans _ _ _ _ _ Sp S0)), ncr_app, (ncr_ws w0 Hw0). reflexivity. }
    (* the key path is not empty: the document does not end before it *)
    assert (Hri : rest i <> []).
    { intro Hr. destruct S0 as [R0 _]. rewrite Hr in R0. destruct w0; [|discriminate]. cbn [app] in R0. destruct Hkat as (_ & Rj & _).
      rewrite <- R0 in Rj. destruct (simple_key_khead _ _ (krepr_tok s k (hkey_lkey s k HKk))) as (b & t' & Eb & _). rewrite Eb in Rj.
      destruct (pre_text s path k); discriminate. }
    assert (El : vok s v = true -> forall ks, pre_text s ks k = pre_text s path k -> dline s (ks ++ [k'], v) = (ncr pend ++ w0) ++ body ++ [x0a]).
    { intros Hv ks Eks. pose proof (Hline Hv ks P0 [] Eks) as El. rewrite !app_nil_r, HP in El. exact El. }
    split.
    - cbn [sitem_ok]. exists j0, i0, ja, jb, path, w1, r. unfold k'.
      split; [apply key_at_with_prefix, Hkat|]. split; [reflexivity|].
      split.
      { intro E0. destruct Hst as [Hr | Hl]; [|rewrite <- E0; exact Hl]. exfalso. apply Hri.
        destruct Sp as [Rp _]. rewrite Hr in Rp. destruct pend; [|discriminate]. symmetry. exact Rp. }
      intros ks Eks Hv. rewrite !pre_text_with_prefix in Eks. apply (El Hv ks Eks).
    - cbn [sitem_cj]. split; [exact Hvf|]. intro Hv.
      destruct Hpo as [Hr | (cp & Hcp)]; [contradiction|]. destruct Hkat as (_ & _ & _ & _ & _ & _ & _ & HKp & Hlk).
      assert (Elead : line_lead s k' = ncr pend ++ w0) by (unfold line_lead, k'; rewrite prefix_with_prefix; exact HP).
      assert (Hqk : qt CS qstop (pre_text s path k ++ krepr s k)).
      { destruct (pre_shape s path k HKp Hlk) as (tt & Htt & <-). apply (qt_key _ _ Htt). }
      assert (Erest : line_rest s k' v = B0 ++ [x0a]).
      { pose proof (El Hv path eq_refl) as E. unfold dline in E. cbn [fst snd] in E. rewrite enc_split in E. fold (line_lead s k') in E.
        unfold k' in E at 2 3 4. rewrite Elead, pre_text_with_prefix, krepr_with_prefix, Ebody in E. unfold line_rest. fold k'.
        rewrite <- !app_assoc in E. do 4 apply app_inv_head in E. rewrite <- ?app_assoc. exact E. }
      exists (cp ++ []), ct. rewrite Elead, Erest.
      split; [apply cjx_app_any; [exact Hcp|apply cj_ws, Hw0]|]. split; [exact HB0|]. split; [exact HqB|].
      rewrite Ebody. replace (((pre_text s path k ++ krepr s k) ++ B0) ++ [x0a]) with ((pre_text s path k ++ krepr s k) ++ (B0 ++ [x0a])) by (rewrite <- !app_assoc; reflexivity).
      apply cjx_app_any; [apply cjx_app_any; [exact Hcp|apply cj_ws, Hw0]|].
      change ct with ([] ++ ct). apply (cjx_app false qstop anyf); [apply (cj_qt CS), Hqk|exact HB0|intros z _; apply HqB].
  Qed.

  (* ---- the invariant ------------------------------------------------------------------------------------------------ *)
  (* the items read so far: in the order of their positions, all before i0; their texts make up the output *)
  Definition read_ok (items : list sitem) (out : bytes) (i0 : input) : Prop :=
    Forall (sitem_ok s) items /\ StronglySorted N.lt (map (fun it : sitem => ppos (fst it)) items)
    /\ Forall (fun it : sitem => (ppos (fst it) < pos i0)%N) items
    /\ out = concat (map snd items) /\ Forall (sitem_cj s) items.

  Lemma read_ok_snoc items out i0 x txt j1 :
    read_ok items out i0 -> sitem_ok s (x, txt) -> sitem_cj s (x, txt) -> (pos i0 <= ppos x < pos j1)%N ->
    read_ok (items ++ [(x, txt)]) (out ++ txt) j1.
  Proof.
    intros (Hok & Hsort & Hlt & -> & Hcj) Hx Hxc [Hle Hlt1].
    split; [apply Forall_app; split; [exact Hok|constructor; [exact Hx|constructor]]|]. split.
    { rewrite map_app. cbn [map fst]. apply sorted_snoc; [exact Hsort|]. rewrite Forall_map. eapply Forall_impl; [|exact Hlt]. intros it Hit. cbn beta in Hit. lia. }
    split.
    { apply Forall_app. split; [eapply Forall_impl; [|exact Hlt]; intros it Hit; cbn beta in Hit; lia|constructor; [exact Hlt1|constructor]]. }
    split; [rewrite map_app, concat_app; cbn [map concat snd]; rewrite app_nil_r; reflexivity|].
    apply Forall_app; split; [exact Hcj|constructor; [exact Hxc|constructor]].
  Qed.

  Definition dinv0 (st : pstate) (i : input) (out : bytes) (i0 : input) (pend : bytes) : Prop :=
    exists items : list sitem,
      tree_ok K st (map fst items) /\ read_ok items out i0
      /\ st_trailing st = Some (pos i0, pos i) /\ isrc s i0 /\ splits i0 pend i /\ at_start i0.

  Definition dinv (st : pstate) (i : input) (out : bytes) (i0 : input) (pend : bytes) : Prop :=
    dinv0 st i out i0 pend /\ pend_ok i pend.

  Lemma dinv_on_ws st i out i0 pend w i1 :
    dinv0 st i out i0 pend -> splits i w i1 -> dinv0 (on_ws st (pos i, pos i1)) i1 out i0 (pend ++ w).
  Proof.
    intros (items & Htree & Hread & Ht & Hi0 & Sp & Hst) Sw. exists items.
    split; [exact Htree|]. split; [exact Hread|]. unfold on_ws. cbn [st_trailing]. rewrite Ht.
    split; [reflexivity|]. split; [exact Hi0|]. split; [exact (splits_trans _ _ _ _ _ Sp Sw)|exact Hst].
  Qed.

  Lemma dinv_trivia st i out i0 pend x j w i1 :
    dinv st i out i0 pend -> splits i x j -> splits j w i1 -> pend_ok i1 (pend ++ x ++ w) ->
    dinv (on_ws (on_ws st (pos i, pos j)) (pos j, pos i1)) i1 out i0 (pend ++ x ++ w).
  Proof.
    intros [HI _] Sx Sw Hpo. split; [|exact Hpo]. rewrite app_assoc. apply dinv_on_ws; [|exact Sw]. apply dinv_on_ws; assumption.
  Qed.

  (* after an item, the pending text is the blanks w alone *)
  Lemma pend_ok_ws i w : ws_tok w -> pend_ok i w.
  Proof. intro Hw. right. exists []. rewrite (ncr_ws w Hw). apply cj_ws, Hw. Qed.

  (* ---- key = value -------------------------------------------------------------------------------------------------- *)
  Lemma merged_prefix_eq st i i0 k j0 :
    st_trailing st = Some (pos i0, pos i) -> d_prefix (k_leaf k) = Some (raw_with_span (pos i, pos j0)) -> (pos i <= pos j0)%N ->
    kv_prefix st k = raw_with_span (pos i0, pos j0).
  Proof.
    intros Ht Ek Hle. unfold kv_prefix. rewrite Ht, Ek, raw_span_with_span. cbn [fst snd].
    destruct (pos i =? pos j0)%N eqn:Q; [apply N.eqb_eq in Q; rewrite Q; reflexivity|reflexivity].
  Qed.

  Lemma dinv_keyval st i out i0 pend path k v st0 j0 ja w0 txt j1 w i1 :
    dinv st i out i0 pend -> on_keyval_sp st path k (IValue v) = COk st0 ->
    splits i w0 j0 -> Forall K path -> d_prefix (k_leaf k) = Some (raw_with_span (pos i, pos j0)) ->
    sitem_ok s (PL (with_prefix k (raw_with_span (pos i0, pos j0))) v, txt) ->
    sitem_cj s (PL (with_prefix k (raw_with_span (pos i0, pos j0))) v, txt) ->
    ppos (PL (with_prefix k (raw_with_span (pos i0, pos j0))) v) = pos ja -> (pos j0 <= pos ja < pos j1)%N ->
    isrc s j1 -> at_start j1 -> splits j1 w i1 -> ws_tok w ->
    dinv (on_ws st0 (pos j1, pos i1)) i1 (out ++ txt) j1 w.
  Proof.
    intros [(items & Htree & Hread & Ht & Hi0 & Sp & Hst) _] Eo S0 HKp Epre Hitem Hitemc Hppos Hpos Hj1 Hst1 Sw Hw.
    destruct (tree_ok_keyval K st path k v st0 _ Eo HKp Htree) as [Htree' Et'].
    pose proof (splits_le _ _ _ Sp) as Pp. pose proof (splits_le _ _ _ S0) as P0.
    rewrite (merged_prefix_eq st i i0 k j0 Ht Epre P0) in Htree'.
    split; [|apply pend_ok_ws, Hw].
    exists (items ++ [(PL (with_prefix k (raw_with_span (pos i0, pos j0))) v, txt)]). rewrite map_app.
    split; [exact Htree'|].
    split; [apply (read_ok_snoc items out i0 _ txt j1 Hread Hitem Hitemc); rewrite Hppos; clear - Pp P0 Hpos; lia|].
    unfold on_ws. cbn [st_trailing]. rewrite Et'. split; [reflexivity|]. split; [exact Hj1|]. split; [exact Sw|exact Hst1].
  Qed.

  (* ---- the end of a section ------------------------------------------------------------------------------------------ *)
  Definition dfin (st stf : pstate) (out : bytes) (i i0 : input) (pend : bytes) : Prop :=
    exists items : list sitem,
      stf = finalized st (st_root stf) /\ root_ok K (st_root stf) (map fst items) /\ read_ok items out i0
      /\ st_trailing st = Some (pos i0, pos i) /\ isrc s i0 /\ splits i0 pend i /\ at_start i0.

  Lemma dinv_finalize st i out i0 pend stf : dinv0 st i out i0 pend -> finalize_table st = COk stf -> dfin st stf out i i0 pend.
  Proof.
    intros (items & Htree & Hrest) Hf. exists items. destruct (tree_ok_finalize K st stf _ Hf Htree) as [Estf Hroot]. auto.
  Qed.

  (* ---- a header --------------------------------------------------------------------------------------------------------- *)
  Lemma dinv_header arr st i out i0 pend kp j jt Y w c st1 jl w' i1 :
    dinv st i out i0 pend -> isrc s i ->
    on_header arr st kp (pos j, pos jt) (pos i, pos j) = COk st1 ->
    hdr_at s (pos i) arr Y -> Forall K kp -> isrc s j -> splits j (w ++ c) jt -> ws_tok w -> opt_comment c ->
    isrc s jl -> (pos i < pos jl)%N -> at_start jl -> splits jl w' i1 ->
    rest i <> [] -> qt CS qstop (hdr_open arr ++ Y ++ hdr_close arr) -> ws_tok w' ->
    dinv (on_ws st1 (pos jl, pos i1)) i1 (out ++ ncr pend ++ (hdr_open arr ++ Y ++ hdr_close arr) ++ (w ++ c) ++ [x0a]) jl w'.
  Proof.
    intros [(items & Htree & Hread & Htr & Hi0 & Sp & Hst) Hpo] Hi Hh Hat HK Hj Swc Hw Hc Hjl Hltl Hstl Sw' Hri HqY Hw'.
    split; [|apply pend_ok_ws, Hw'].
    destruct Hpo as [Hr | (cp & Hcp)]; [congruence|].
    destruct (tree_ok_header K arr st kp _ _ st1 _ Hh HK Htree) as [Htree' Et1]. rewrite Htr in Htree'. cbn [fst] in Htree'.
    set (lead := raw_with_span (pos i0, pos i)) in *. set (trail := raw_with_span (pos j, pos jt)) in *.
    set (xh := PH (Some (pos i)) (Some (st_position st + 1)%N) arr (decor_new lead trail)) in *.
    assert (Elead : raw_encode (traw s lead) [] = ncr pend) by apply (span_prints s i0 pend i [] Hi0 Sp).
    assert (Etrail : raw_encode (traw s trail) [] = w ++ c).
    { unfold trail. rewrite (span_prints s j (w ++ c) jt [] Hj Swc), ncr_app, (ncr_ws w Hw), (ncr_opt_comment c Hc). reflexivity. }
    set (txt := raw_encode (traw s lead) [] ++ (hdr_open arr ++ Y ++ hdr_close arr) ++ raw_encode (traw s trail) [] ++ [x0a]).
    assert (Hitem : sitem_ok s (xh, txt)) by (cbn [sitem_ok]; exists (pos i), (st_position st + 1)%N, lead, trail, Y; auto).
    assert (Hitemc : sitem_cj s (xh, txt)).
    { cbn [sitem_cj xh]. unfold pre_raw, suf_raw. cbn [decor_new d_prefix d_suffix].
      destruct (cj_trail w c Hw Hc) as (ct & Hct & Hqt). exists cp, ct. rewrite Elead, Etrail.
      split; [exact Hcp|]. split; [exact Hct|]. split; [exact Hqt|]. unfold txt. rewrite Elead, Etrail.
      apply cjx_app_any; [exact Hcp|]. change ct with ([] ++ ct).
      apply (cjx_app false qstop anyf); [apply (cj_qt CS), HqY|exact Hct|intros z _; apply Hqt]. }
    exists (items ++ [(xh, txt)]). rewrite map_app. split; [exact Htree'|]. split.
    { rewrite <- Elead, <- Etrail. apply (read_ok_snoc items out i0 xh txt jl Hread Hitem Hitemc). cbn [ppos xh].
      pose proof (splits_le _ _ _ Sp) as Pp. clear - Pp Hltl. lia. }
    unfold on_ws. cbn [st_trailing]. rewrite Et1. auto.
  Qed.

  (* ---- one iteration of the loop ------------------------------------------------------------------------------------- *)
  Definition step3 (st : pstate) (i : input) (st1 : pstate) (i1 : input) (o : bytes) : Prop :=
    forall out i0 pend, dinv st i out i0 pend ->
      exists out' i0' pend', dinv st1 i1 out' i0' pend' /\ out' ++ ncr pend' = out ++ ncr pend ++ o.

  Lemma doc_line_render3 st i st1 i1 : isrc s i -> doc_line st i = Ok st1 i1 ->
    exists w0 e l o le w,
      ws_tok w0 /\ item_text e l o /\ ws_tok w /\ splits i (w0 ++ e ++ le ++ w) i1
      /\ (newline_tok le \/ (le = [] /\ w = [] /\ rest i1 = [])) /\ isrc s i1
      /\ step3 st i st1 i1 (w0 ++ o ++ le_out l le ++ w).
  Proof.
    intros Hi H. destruct (doc_line_toks st i st1 i1 H) as (st0 & j1 & w & Hlr & Hw & Sw & ->).
    assert (Hend : forall le, lend le (rest j1) -> newline_tok le \/ (le = [] /\ w = [] /\ rest i1 = [])).
    { intros le [Hn | [-> Hr]]; [left; exact Hn|right]. destruct Sw as [R E]. rewrite Hr in R.
      destruct w; [|discriminate]. cbn [app] in R. auto. }
    destruct Hlr as [c le Hc S12 Hl|nl Hn S1|arr kp sp tr st' H2 Eo|path k it st' H2 Eo].
    - (* a comment *)
      destruct (isrc_splits s i (c ++ le) j1 Hi S12) as [Hj1 _]. destruct (isrc_splits s j1 w i1 Hj1 Sw) as [Hi1 _].
      exists [], c, [], c, le, w. split; [reflexivity|]. split; [apply itx_comment, Hc|]. split; [exact Hw|].
      split; [pose proof (splits_trans _ _ _ _ _ S12 Sw) as S; rewrite <- !app_assoc in S; exact S|].
      split; [apply Hend, Hl|]. split; [exact Hi1|].
      intros out i0 pend HI. exists out, i0, (pend ++ (c ++ le) ++ w). split.
      { apply dinv_trivia; try assumption. destruct HI as [_ [Hr | (cp & Hcp)]].
        - exfalso. destruct S12 as [R1 _]. rewrite Hr in R1. destruct Hc as (uc & -> & _). discriminate.
        - destruct Hl as [Hn | [-> Hr]].
          + right. eexists. rewrite ncr_app. apply (cj_pend_comment _ cp c le w Hcp Hc Hn Hw).
          + left. destruct (Hend [] (or_intror (conj eq_refl Hr))) as [[H0 | H0] | (_ & _ & H0)]; [discriminate..|exact H0]. }
      rewrite !ncr_app, (ncr_comment c Hc), (ncr_ws w Hw). cbn [app].
      assert (El : ncr le = le_out [] le) by (destruct Hl as [[-> | ->] | [-> _]]; reflexivity).
      rewrite El, <- !app_assoc. reflexivity.
    - (* a blank line *)
      destruct (isrc_splits s i nl j1 Hi S1) as [Hj1 _]. destruct (isrc_splits s j1 w i1 Hj1 Sw) as [Hi1 _].
      exists [], [], [], [], nl, w. split; [reflexivity|]. split; [apply itx_blank|]. split; [exact Hw|].
      split; [exact (splits_trans _ _ _ _ _ S1 Sw)|]. split; [left; exact Hn|]. split; [exact Hi1|].
      intros out i0 pend HI. exists out, i0, (pend ++ nl ++ w). split.
      { apply dinv_trivia; try assumption. destruct HI as [_ [Hr | (cp & Hcp)]].
        - exfalso. destruct S1 as [R1 _]. rewrite Hr in R1. destruct Hn as [-> | ->]; discriminate.
        - right. eexists. rewrite ncr_app. apply (cj_pend_blank _ cp nl w Hcp Hn Hw). }
      rewrite !ncr_app, (ncr_newline nl Hn), (ncr_ws w Hw), (newline_le_out [] nl Hn). cbn [app]. rewrite <- ?app_assoc. reflexivity.
    - (* a header *)
      destruct (header_text_render s arr i kp sp tr j1 Hi H2)
        as (jh & Y & wt & c & jt & le & -> & Sh & Hat & HK & Hne & Htok & Hwt & Hc & Swc & -> & Hjh & Sle & Hl & Hj1).
      destruct (isrc_splits s j1 w i1 Hj1 Sw) as [Hi1 _]. destruct (isrc_splits s jh (wt ++ c) jt Hjh Swc) as [Hjt _].
      exists [], ((hdr_open arr ++ Y ++ hdr_close arr) ++ wt ++ c), [if arr then SArrHeader (map k_key kp) else SHeader (map k_key kp)],
             ((hdr_open arr ++ Y ++ hdr_close arr) ++ wt ++ c), le, w.
      split; [reflexivity|]. split; [apply header_item_text; assumption|]. split; [exact Hw|].
      split; [pose proof (splits_trans _ _ _ _ _ Sh (splits_trans _ _ _ _ _ Swc (splits_trans _ _ _ _ _ Sle Sw))) as S; cbn [app]; rewrite <- ?app_assoc; rewrite <- ?app_assoc in S; exact S|].
      split; [apply Hend, Hl|]. split; [exact Hi1|].
      intros out i0 pend HI.
      assert (Hlt : (pos i < pos j1)%N).
      { pose proof (splits_pos _ _ _ Sh) as P1. pose proof (splits_le _ _ _ Swc) as P2. pose proof (splits_le _ _ _ Sle) as P3.
        rewrite app_length in P1. assert (0 < length (hdr_open arr)) by (destruct arr; cbn; lia). lia. }
      eexists _, j1, w. split.
      { apply (dinv_header arr st i out i0 pend kp jh jt Y wt c st' j1 w i1); try assumption.
        - apply (lend_at_start jt le j1 Hjt Sle Hl).
        - destruct Sh as [Rh _]. rewrite Rh. destruct arr; discriminate.
        - apply (qt_table arr _ _ Htok). }
      rewrite (ncr_ws w Hw).
      assert (El : le_out [if arr then SArrHeader (map k_key kp) else SHeader (map k_key kp)] le = [x0a])
        by (destruct arr; destruct Hl as [[-> | ->] | [-> _]]; reflexivity).
      rewrite El. cbn [app]. rewrite <- !app_assoc. reflexivity.
    - (* key = value *)
      destruct (parse_keyval_render_d i _ j1 Hi H2)
        as (path' & k' & v & j0 & ja & jb & w0 & w1 & w2 & t & a & o & wt & c & le & r & E & Hw0 & Hw2 & Ht & Hwt & Hc & Hkt
            & S0 & Sp & Hl & Hj1 & Hst1 & Hkat & HKk & Hlt & Epre & Hvf & Hline).
      injection E as <- <- ->. pose proof Hkat as (_ & _ & _ & Hw1 & Erepr & Eja & _ & HKp & _).
      destruct (isrc_splits s j1 w i1 Hj1 Sw) as [Hi1 _].
      set (KT := pre_text s path k ++ krepr s k) in *.
      exists w0, ((KT ++ w1 ++ [x3d] ++ w2 ++ t) ++ wt ++ c), [SKeyVal (map k_key (path ++ [k])) a], ((KT ++ w1 ++ [x3d] ++ w2 ++ o) ++ wt ++ c), le, w.
      split; [exact Hw0|]. split; [apply itx_keyval; assumption|]. split; [exact Hw|].
      split; [pose proof (splits_trans _ _ _ _ _ Sp Sw) as S; rewrite <- !app_assoc in *; exact S|].
      split; [apply Hend, Hl|]. split; [exact Hi1|].
      intros out i0 pend HI.
      destruct (cj_kv_rest w1 w2 t a o wt c Hw1 Hw2 Ht Hwt Hc) as (ct & Hct & Hqct).
      destruct HI as [HI0 Hpo]. pose proof HI0 as (items & _ & _ & _ & Hi0 & Spend & Hst0).
      destruct (kv_item i0 pend i w0 j0 ja jb path k v w1 r ((KT ++ w1 ++ [x3d] ++ w2 ++ o) ++ wt ++ c) (w1 ++ [x3d] ++ w2 ++ o ++ wt ++ c) ct
                  Hi0 Spend Hst0 Hpo S0 Hw0 Hkat HKk Hvf Hline ltac:(unfold KT; rewrite <- !app_assoc; reflexivity) Hct Hqct) as [Hitem Hitemc].
      eexists _, j1, w. split.
      + apply (dinv_keyval st i out i0 pend path k v st' j0 ja w0 _ j1 w i1 (conj HI0 Hpo) Eo S0 HKp Epre Hitem Hitemc); try assumption.
        * apply (ppos_line _ v _ _ Erepr).
        * clear - Eja Hlt. lia.
      + rewrite (ncr_ws w Hw).
        assert (El : le_out [SKeyVal (map k_key (path ++ [k])) a] le = [x0a]) by (destruct Hl as [[-> | ->] | [-> _]]; reflexivity).
        rewrite El. rewrite <- !app_assoc. reflexivity.
  Qed.

  (* ---- the loop ------------------------------------------------------------------------------------------------------ *)
  Lemma step3_nil st i : step3 st i st i [].
  Proof. intros out i0 pend HI. exists out, i0, pend. split; [exact HI|]. rewrite !app_nil_r. reflexivity. Qed.

  Lemma step3_trans st i st1 i1 st2 i2 o1 o2 : step3 st i st1 i1 o1 -> step3 st1 i1 st2 i2 o2 -> step3 st i st2 i2 (o1 ++ o2).
  Proof.
    intros H1 H2 out i0 pend HI.
    destruct (H1 out i0 pend HI) as (out1 & i01 & pend1 & HI1 & E1).
    destruct (H2 out1 i01 pend1 HI1) as (out2 & i02 & pend2 & HI2 & E2).
    exists out2, i02, pend2. split; [exact HI2|]. rewrite E2, (app_assoc out1), E1, <- !app_assoc. reflexivity.
  Qed.

  Lemma doc_loop_render3 : forall fuel st i st' i', isrc s i -> doc_loop fuel st i = Ok st' i' ->
    exists t l o, splits i t i' /\ lines_text t l o /\ isrc s i' /\ step3 st i st' i' o.
  Proof.
    induction fuel as [|f IH]; intros st i st' i' Hi H; [discriminate|]. cbn [doc_loop] in H.
    destruct (doc_line st i) as [st1 i1|e j|e j|x] eqn:E; try discriminate.
    - destruct (Nat.eqb (length (rest i1)) (length (rest i))); [discriminate|].
      destruct (doc_line_render3 st i st1 i1 Hi E) as (w0 & e & l & o & le & w & Hw0 & He & Hw & Sp & Hle & Hi1 & Hok).
      destruct Hle as [Hn | (-> & -> & R1)].
      + destruct (IH st1 i1 st' i' Hi1 H) as (t & l' & o' & St & Hlt & Hi' & Hok').
        exists ((w0 ++ e ++ le ++ w) ++ t), (l ++ l'), ((w0 ++ o ++ le_out l le ++ w) ++ o').
        split; [exact (splits_trans _ _ _ _ _ Sp St)|]. split; [|split; [exact Hi'|exact (step3_trans _ _ _ _ _ _ _ _ Hok Hok')]].
        rewrite (newline_le_out l le Hn).
        replace ((w0 ++ e ++ le ++ w) ++ t) with (w0 ++ e ++ le ++ w ++ t) by (rewrite <- !app_assoc; reflexivity).
        replace ((w0 ++ o ++ [x0a] ++ w) ++ o') with (w0 ++ o ++ [x0a] ++ w ++ o') by (rewrite <- !app_assoc; reflexivity).
        apply ltx_cons; assumption.
      + destruct (doc_loop_at_end f st1 i1 st' i' R1 H) as [-> ->].
        exists (w0 ++ e), l, (w0 ++ o ++ stmt_lf l). rewrite !app_nil_r in Sp. split; [exact Sp|]. split; [apply ltx_last; assumption|].
        split; [exact Hi1|]. cbn [le_out] in Hok. rewrite app_nil_r in Hok. exact Hok.
    - injection H as <- <-. exists [], [], []. split; [apply splits_nil|]. split; [apply ltx_nil|]. split; [exact Hi|apply step3_nil].
  Qed.
End DDoc.
