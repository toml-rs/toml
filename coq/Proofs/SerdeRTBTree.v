(* Proofs/SerdeRTBTree.v — C07: toml::Table without preserve_order is a BTreeMap<String, Value>; the
   model keeps its entries as a list sorted by key (Model/Ser.v btree_insert).  Inserting entries
   with pairwise distinct keys yields a permutation of them with pairwise distinct keys. *)
From TV Require Import Base.Prelude Spec.SerdeData Model.Ser Proofs.SerdeRTBase.
From Coq Require Import Permutation Sorted.
Require Import Lia ZifyBool ZifyN ZifyNat.

Lemma bytes_ltb_irrefl a : bytes_ltb a a = false.
Proof. induction a as [|x a IH]; simpl; [reflexivity|]. rewrite IH. lia. Qed.

Lemma bytes_ltb_trans a : forall b c, bytes_ltb a b = true -> bytes_ltb b c = true -> bytes_ltb a c = true.
Proof.
  induction a as [|x a IH]; intros [|y b] [|z c] H1 H2; simpl in *; try discriminate; try reflexivity.
  apply orb_true_iff in H1. apply orb_true_iff in H2. apply orb_true_iff.
  destruct H1 as [H1|H1]; destruct H2 as [H2|H2].
  - left. lia.
  - left. apply andb_true_iff in H2 as [H2 _]. lia.
  - left. apply andb_true_iff in H1 as [H1 _]. lia.
  - apply andb_true_iff in H1 as [E1 L1]. apply andb_true_iff in H2 as [E2 L2].
    right. apply andb_true_iff. split; [lia|]. eapply IH; eassumption.
Qed.

Lemma bytes_ltb_total a : forall b, bytes_ltb a b = false -> a <> b -> bytes_ltb b a = true.
Proof.
  induction a as [|x a IH]; intros [|y b] H Hne; simpl in *; try discriminate; try reflexivity; try congruence.
  apply orb_false_iff in H as [H1 H2].
  destruct (N.eq_dec (b2n x) (b2n y)) as [E|E].
  - apply b2n_inj in E. subst y. apply orb_true_iff. right. apply andb_true_iff. split; [lia|].
    apply IH; [|congruence]. destruct (bytes_ltb a b); [|reflexivity]. rewrite N.eqb_refl in H2. discriminate.
  - apply orb_true_iff. left. lia.
Qed.

Definition key_lt (p q : bytes * tomlval) : Prop := bytes_ltb (fst p) (fst q) = true.
Definition bsorted (es : list (bytes * tomlval)) : Prop := StronglySorted key_lt es.

Lemma bsorted_nodup es : bsorted es -> NoDup (map fst es).
Proof.
  induction 1 as [|p es _ IH Hall]; simpl; constructor; [|exact IH].
  intro Hin. apply in_map_iff in Hin as (q & Hq & Hin). rewrite Forall_forall in Hall.
  specialize (Hall q Hin). unfold key_lt in Hall. rewrite Hq, bytes_ltb_irrefl in Hall. discriminate.
Qed.

(* what an insert does to membership, on a sorted table *)
Lemma btree_insert_spec k x es : bsorted es ->
  bsorted (btree_insert k x es) /\
  (forall k' x', In (k', x') (btree_insert k x es) <-> ((k' = k /\ x' = x) \/ (k' <> k /\ In (k', x') es))).
Proof.
  induction 1 as [|[k0 x0] es Hs IH Hall]; simpl.
  - split; [repeat constructor|]. intros k' x'. split.
    + intros [H|[]]. injection H as <- <-. left; auto.
    + intros [[-> ->]|[_ []]]. left; reflexivity.
  - destruct IH as [IHs IHm]. rewrite Forall_forall in Hall.
    destruct (bytes_eqb k0 k) eqn:E.
    + apply bytes_eqb_eq in E. subst k0. split.
      * constructor; [exact Hs|]. apply Forall_forall. intros q Hq. apply (Hall q Hq).
      * intros k' x'. split.
        -- intros [H|H]; [injection H as <- <-; left; auto|].
           right. split; [|right; exact H]. intros ->. specialize (Hall _ H). unfold key_lt in Hall. simpl in Hall.
           rewrite bytes_ltb_irrefl in Hall. discriminate.
        -- intros [[-> ->]|[Hne [H|H]]]; [left; reflexivity| |right; exact H].
           injection H as <- _. congruence.
    + apply bytes_eqb_neq in E. destruct (bytes_ltb k k0) eqn:L.
      * split.
        -- constructor; [constructor; [exact Hs|apply Forall_forall; exact Hall]|].
           constructor; [exact L|]. apply Forall_forall. intros q Hq. unfold key_lt. simpl.
           eapply bytes_ltb_trans; [exact L|]. apply (Hall q Hq).
        -- intros k' x'. split.
           ++ intros [H|H]; [injection H as <- <-; left; auto|]. right. split; [|exact H].
              intros ->. destruct H as [H|H]; [injection H as -> _; congruence|].
              specialize (Hall _ H). unfold key_lt in Hall. simpl in Hall.
              assert (Hkk : bytes_ltb k k = true) by (eapply bytes_ltb_trans; [exact L|exact Hall]).
              rewrite bytes_ltb_irrefl in Hkk. discriminate.
           ++ intros [[-> ->]|[_ H]]; [left; reflexivity|right; exact H].
      * assert (L' : bytes_ltb k0 k = true) by (apply bytes_ltb_total; [exact L|congruence]).
        split.
        -- constructor; [exact IHs|]. apply Forall_forall. intros [k' x'] Hq. apply IHm in Hq.
           unfold key_lt. simpl. destruct Hq as [[-> ->]|[_ Hq]]; [exact L'|apply (Hall _ Hq)].
        -- intros k' x'. split.
           ++ intros [H|H]; [injection H as <- <-; right; split; [exact E|left; reflexivity]|].
              apply IHm in H. destruct H as [H|[Hne H]]; [left; exact H|right; split; [exact Hne|right; exact H]].
           ++ intros [H|[Hne [H|H]]].
              ** right. apply IHm. left. exact H.
              ** left. exact H.
              ** right. apply IHm. right. auto.
Qed.

(* inserting entries whose keys are pairwise distinct *)
Lemma btree_fold_spec : forall ps acc, bsorted acc -> NoDup (map fst ps) ->
  (forall k, In k (map fst ps) -> ~ In k (map fst acc)) ->
  bsorted (fold_left (fun acc p => btree_insert (fst p) (snd p) acc) ps acc) /\
  (forall kx, In kx (fold_left (fun acc p => btree_insert (fst p) (snd p) acc) ps acc) <-> In kx acc \/ In kx ps).
Proof.
  induction ps as [|[k x] ps IH]; intros acc Hs Hnd Hdis; simpl.
  - split; [exact Hs|]. intro kx. tauto.
  - destruct (btree_insert_spec k x acc Hs) as [Hs' Hm]. simpl in Hnd, Hdis.
    inversion Hnd as [|? ? Hnot Hnd']; subst.
    assert (Hk : ~ In k (map fst acc)) by (apply Hdis; left; reflexivity).
    destruct (IH (btree_insert k x acc) Hs' Hnd') as [R1 R2].
    { intros k' Hin Hin'. apply in_map_iff in Hin' as ([k'' x''] & Hk' & Hin'). simpl in Hk'. subst k''.
      apply Hm in Hin'. destruct Hin' as [[-> _]|[_ Hin']]; [apply Hnot; exact Hin|].
      apply (Hdis k' (or_intror Hin)). apply (in_map fst) in Hin'. exact Hin'. }
    split; [exact R1|]. intros [k' x']. rewrite R2, Hm. split.
    + intros [[[-> ->]|[_ H]]|H]; [right; left; reflexivity|left; exact H|right; right; exact H].
    + intros [H|[H|H]]; [left; right; split; [|exact H]|left; left; injection H as <- <-; auto|right; exact H].
      intros ->. apply Hk. apply (in_map fst) in H. exact H.
Qed.

Lemma btree_of_pairs_spec ps : NoDup (map fst ps) ->
  bsorted (btree_of_pairs ps) /\ (forall kx, In kx (btree_of_pairs ps) <-> In kx ps).
Proof.
  intro Hnd. destruct (btree_fold_spec ps [] (SSorted_nil _) Hnd) as [R1 R2]; [intros k _ []|].
  split; [exact R1|]. intro kx. unfold btree_of_pairs. rewrite R2. simpl. tauto.
Qed.

Lemma btree_of_pairs_perm ps : NoDup (map fst ps) -> Permutation ps (btree_of_pairs ps).
Proof.
  intro Hnd. destruct (btree_of_pairs_spec ps Hnd) as [Hs Hm].
  apply NoDup_Permutation.
  - apply (NoDup_map_inv fst). exact Hnd.
  - apply (NoDup_map_inv fst). apply bsorted_nodup. exact Hs.
  - intro kx. symmetry. apply Hm.
Qed.
