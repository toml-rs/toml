(* Proofs/MacroTails.v — C19: the first of the fourteen value tails that matches, for every token skeleton a
   supported value has (decided by computation; literal contents, the body constructors and the far rest
   stay symbolic), and the rules of the @...datetime helper states.

   What may follow a value:
     at top level   the next statement: it starts with a key token or a `[..]` group, and the token after a
                    key token is `.`, `-` or `=`                                            (`rest_ok`)
     in @table / @array   a comma, then the next pair / element or nothing; an element may start with a sign
                                                                                            (`comma_rest_ok`) *)
From TV Require Import Base.Prelude Model.Macro Proofs.MacroMatch Proofs.MacroRules.

Definition is_plain (t : tt) : bool := match t with TPunct _ => false | _ => true end.

Definition rest_ok (R : list tt) : bool :=
  match R with
  | [] => true
  | t0 :: R1 =>
    is_plain t0 &&
    match R1 with
    | TPunct c :: _ => byte_eqb c c_dot || byte_eqb c c_minus || byte_eqb c c_eq
    | _ => true
    end
  end.

Definition comma_rest_ok (R : list tt) : bool :=
  match R with
  | TPunct c :: _ => byte_eqb c c_minus || byte_eqb c c_plus
  | _ => true
  end.

(* the two places of a value: directly before the rest (top level), or before a comma and the rest *)
Definition sfxP (comma : bool) : list pat := if comma then [P c_comma] else [].
Definition sfxT (comma : bool) : list tt := if comma then [TPunct c_comma] else [].
Definition follow_ok (comma : bool) (R : list tt) : bool := if comma then comma_rest_ok R else rest_ok R.

(* all shapes of R that follow_ok allows: two tokens deep for rest_ok, one for comma_rest_ok *)
Ltac split_follow comma R H :=
  destruct comma; cbn [follow_ok] in H;
  [ destruct R as [|[?s|?l|?c|?d ?g] ?R2]; cbn [comma_rest_ok] in H
  | destruct R as [|[?s|?l|?c|?d ?g] [|[?s|?l|?c|?d ?g] ?R2]]; cbn [rest_ok is_plain andb] in H; try discriminate H ];
  try (repeat (apply orb_true_iff in H; destruct H as [H|H]); apply byte_eqb_eq in H; subst).

(* ---- date-time skeletons ---- *)
Definition sk_date (y m d : lit) : list tt := [TLit y; TPunct c_minus; TLit m; TPunct c_minus; TLit d].
Definition sk_time (h mi s : lit) : list tt := [TLit h; TPunct c_colon; TLit mi; TPunct c_colon; TLit s].
Definition sk_off (oh om : lit) : list tt := [TPunct c_minus; TLit oh; TPunct c_colon; TLit om].
(* 1979-05-27T07:32:00 (`27T07` is one literal), 1979-05-27 07:32:00, and the latter as handed on (`T` inserted) *)
Definition sk_dtT (y m dh mi s : lit) : list tt := [TLit y; TPunct c_minus; TLit m; TPunct c_minus] ++ sk_time dh mi s.
Definition sk_dtS (y m d h mi s : lit) : list tt := sk_date y m d ++ sk_time h mi s.
Definition nk_dtS (y m d h mi s : lit) : list tt := sk_date y m d ++ TIdent id_T :: sk_time h mi s.

Definition e_date (y m d : lit) : env := [(Vyr, BTT (TLit y)); (Vmo, BTT (TLit m)); (Vday, BTT (TLit d))].
Definition e_time (h mi s : lit) : env := [(Vhr, BTT (TLit h)); (Vmin, BTT (TLit mi)); (Vsec, BTT (TLit s))].
Definition e_dtT (y m dh mi s : lit) : env :=
  [(Vyr, BTT (TLit y)); (Vmo, BTT (TLit m)); (Vdhr, BTT (TLit dh)); (Vmin, BTT (TLit mi)); (Vsec, BTT (TLit s))].
Definition e_dtS (y m d h mi s : lit) : env :=
  [(Vyr, BTT (TLit y)); (Vmo, BTT (TLit m)); (Vday, BTT (TLit d)); (Vhr, BTT (TLit h)); (Vmin, BTT (TLit mi)); (Vsec, BTT (TLit s))].
Definition e_off (oh om : lit) : env := [(Vtzh, BTT (TLit oh)); (Vtzm, BTT (TLit om))].

Definition shape (k : nat) : list tpl := snd (nth k dt_shapes ([], [])).

(* `dt_skel X N k e`: the value tokens X match date-time shape number k with bindings e, and the tokens
   that shape hands to the @...datetime state are N.  (A fraction never shows: `00.5` is one float literal.) *)
Inductive dt_skel : list tt -> list tt -> nat -> env -> Prop :=
| SkDate y m d : dt_skel (sk_date y m d) (sk_date y m d) 8 (e_date y m d)
| SkTime h mi s : dt_skel (sk_time h mi s) (sk_time h mi s) 10 (e_time h mi s)
| SkDtT y m dh mi s : dt_skel (sk_dtT y m dh mi s) (sk_dtT y m dh mi s) 6 (e_dtT y m dh mi s)
| SkDtS y m d h mi s : dt_skel (sk_dtS y m d h mi s) (nk_dtS y m d h mi s) 7 (e_dtS y m d h mi s)
| SkOdtT y m dh mi s oh om :
    dt_skel (sk_dtT y m dh mi s ++ sk_off oh om) (sk_dtT y m dh mi s ++ sk_off oh om) 2 (e_dtT y m dh mi s ++ e_off oh om)
| SkOdtS y m d h mi s oh om :
    dt_skel (sk_dtS y m d h mi s ++ sk_off oh om) (nk_dtS y m d h mi s ++ sk_off oh om) 3 (e_dtS y m d h mi s ++ e_off oh om).

Section Tails.
Variables (ms md : list tpl -> body) (g : body).
Let tls := tails ms md g.

Lemma sel_minus : forall comma t R,
  first_tail (sfxP comma) tls (TPunct c_minus :: t :: sfxT comma ++ R)
  = Some (ms [QGroup DParen [Q c_minus; QVar Vv]], [(Vv, BTT t)], R).
Proof. intros [|] t R; reflexivity. Qed.

Lemma sel_plus : forall comma t R,
  first_tail (sfxP comma) tls (TPunct c_plus :: t :: sfxT comma ++ R)
  = Some (ms [QGroup DParen [QVar Vv]], [(Vv, BTT t)], R).
Proof. intros [|] t R; reflexivity. Qed.

Lemma sel_plain : forall comma t R, is_plain t = true -> follow_ok comma R = true ->
  first_tail (sfxP comma) tls (t :: sfxT comma ++ R) = Some (g, [(Vv, BTT t)], R).
Proof.
  intros comma t R Ht HR. destruct t as [s|l|c|d gg]; try discriminate Ht; split_follow comma R HR; vm_compute; reflexivity.
Qed.

Lemma sel_skel : forall comma X N k e R, dt_skel X N k e -> follow_ok comma R = true ->
  first_tail (sfxP comma) tls (X ++ sfxT comma ++ R) = Some (md (shape k), e, R).
Proof. intros comma X N k e R [] HR; split_follow comma R HR; vm_compute; reflexivity. Qed.

End Tails.

(* what the shape hands on, whatever the front part of the head has bound *)
Lemma skel_transcribe : forall E, forallb (fun xb => var_mem (fst xb) ctx_vars) E = true ->
  forall X N k e e2, dt_skel X N k e -> transcribe_seq (shape k) (E ++ e ++ e2) = N.
Proof.
  intros E HE X N k e e2 []; unfold transcribe_seq; cbn [shape nth dt_shapes snd flat_map transcribe Q];
    rewrite !(env_skip E HE) by reflexivity; reflexivity.
Qed.

(* a skeleton begins and ends with a literal; what is handed on is not empty; `$rest` is not among its variables *)
Lemma skel_facts : forall X N k e, dt_skel X N k e ->
  (exists l X', X = TLit l :: X') /\ (exists l, last X (TPunct c_at) = TLit l) /\ N <> [] /\ lookup Vrest e = None.
Proof. intros X N k e []; repeat split; try discriminate; eexists; try eexists; reflexivity. Qed.

(* ---- the @...datetime helper states ---- *)
Lemma dt_group_match : forall dts R,
  seq_match match_pat [PGroup DParen [starP Vdatetime]; starP Vrest] (TGroup DParen dts :: R)
  = Some ([(Vdatetime, tts_bnd dts); (Vrest, tts_bnd R)], []).
Proof. intros. rewrite seq_match_cons, match_group_star, seq_match_cons, match_star. reflexivity. Qed.

Theorem topdt_first_match : forall r pt segs dts R, ident_frag_ok r = true -> segs_ok segs -> dts <> [] ->
  first_match rules (st_in id_topleveldatetime r (TGroup DBracket pt :: dot_join segs ++ TPunct c_eq :: TGroup DParen dts :: R))
  = Some (BInsertDt true top_next, E_top r pt segs ++ [(Vdatetime, tts_bnd dts)] ++ [(Vrest, tts_bnd R)]).
Proof.
  intros r pt segs dts R Hr Hs Hd. apply (state_first_head _ _ _ _ [] _ rules_topdt_state).
  apply (seq_match_app_some _ _ _ _ _ _ _ (path_key_prefix id_topleveldatetime r pt segs _ Hr Hs)).
  rewrite seq_match_cons, (match_group_plus DParen Vdatetime dts R Hd), seq_match_cons, match_star. reflexivity.
Qed.

Theorem tabdt_first_match : forall r segs dts R, ident_frag_ok r = true -> segs_ok segs ->
  first_match rules (st_in id_tabledatetime r (dot_join segs ++ TPunct c_eq :: TGroup DParen dts :: R))
  = Some (BInsertDt false tab_next, E_tab r segs ++ [(Vdatetime, tts_bnd dts)] ++ [(Vrest, tts_bnd R)]).
Proof.
  intros r segs dts R Hr Hs. apply (state_first_head _ _ _ _ [] _ rules_tabdt_state).
  exact (seq_match_app_some _ _ _ _ _ _ _ (key_prefix id_tabledatetime r segs _ Hr Hs) (dt_group_match dts R)).
Qed.

Theorem arrdt_first_match : forall r dts R, ident_frag_ok r = true ->
  first_match rules (st_in id_arraydatetime r (TGroup DParen dts :: R))
  = Some (BArrPushDt arr_next, E_arr r ++ [(Vdatetime, tts_bnd dts)] ++ [(Vrest, tts_bnd R)]).
Proof.
  intros r dts R Hr. apply (state_first_head _ _ _ _ [] _ rules_arrdt_state).
  exact (seq_match_app_some _ _ _ _ _ _ _ (st_prefix id_arraydatetime r _ Hr) (dt_group_match dts R)).
Qed.
