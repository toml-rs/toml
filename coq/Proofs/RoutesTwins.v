(* Proofs/RoutesTwins.v — C13: the twin DESERIALIZERS agree.  For every type and every tree x that
   toml::from_str::<toml::Value> turns into the toml::Value y: whenever toml_edit's deserializer on x
   (toml::from_str, toml_edit::de::from_str / from_slice / from_document, the value deserializers) and
   toml::Value's own on y (try_into) both succeed, they return equal values (equal up to the
   order of map entries: a toml::Table iterates in key order). *)
From TV Require Import Base.Prelude Model.DatetimeStd Spec.SerdeData Model.Ser Model.De Model.SerdeRoutes Proofs.DatetimeEq
  Proofs.SerdeRTBase Proofs.SerdeRTEq Proofs.SerdeRTLists Proofs.SerdeRTBTree Proofs.SerdeRTTv Proofs.RoutesRel Proofs.RoutesConv.
From Coq Require Import Permutation Sorted.
From TV Require Import Base.ListFacts.

Section SvalInd.
  Variable P : sval -> Prop.
  Hypothesis HBool : forall b, P (SBool b).
  Hypothesis HInt : forall z, P (SInt z).
  Hypothesis HF64 : forall b, P (SF64 b).
  Hypothesis HF32 : forall b, P (SF32 b).
  Hypothesis HChar : forall c, P (SChar c).
  Hypothesis HStr : forall s, P (SStr s).
  Hypothesis HDt : forall d, P (SDt d).
  Hypothesis HUnit : P SUnit.
  Hypothesis HNone : P SNone.
  Hypothesis HSome : forall v, P v -> P (SSome v).
  Hypothesis HSeq : forall vs, Forall P vs -> P (SSeq vs).
  Hypothesis HMap : forall es, Forall (fun kv => P (fst kv) /\ P (snd kv)) es -> P (SMap es).
  Hypothesis HRec : forall vs, Forall P vs -> P (SRec vs).
  Hypothesis HNewtype : forall v, P v -> P (SNewtype v).
  Hypothesis HVariant : forall i p, P p -> P (SVariant i p).
  Fixpoint sval_ind2 (v : sval) : P v :=
    match v with
    | SBool b => HBool b | SInt z => HInt z | SF64 b => HF64 b | SF32 b => HF32 b | SChar c => HChar c
    | SStr s => HStr s | SDt d => HDt d | SUnit => HUnit | SNone => HNone
    | SSome v' => HSome v' (sval_ind2 v')
    | SSeq vs => HSeq vs ((fix go (l : list sval) : Forall P l :=
                             match l with [] => Forall_nil _ | x :: l' => Forall_cons x (sval_ind2 x) (go l') end) vs)
    | SMap es => HMap es ((fix go (l : list (sval * sval)) : Forall (fun kv => P (fst kv) /\ P (snd kv)) l :=
                             match l with
                             | [] => Forall_nil _
                             | x :: l' => Forall_cons x (match x return P (fst x) /\ P (snd x) with (a, b) => conj (sval_ind2 a) (sval_ind2 b) end) (go l')
                             end) es)
    | SRec vs => HRec vs ((fix go (l : list sval) : Forall P l :=
                             match l with [] => Forall_nil _ | x :: l' => Forall_cons x (sval_ind2 x) (go l') end) vs)
    | SNewtype v' => HNewtype v' (sval_ind2 v')
    | SVariant i p => HVariant i p (sval_ind2 p)
    end.
End SvalInd.

Lemma Forall2_refl_Forall {A} (R : A -> A -> Prop) l : Forall (fun a => R a a) l -> Forall2 R l l.
Proof. induction 1; constructor; assumption. Qed.

Lemma sval_eq_refl v : sval_eq v v.
Proof.
  induction v using sval_ind2; try (constructor; fail).
  - constructor. left; reflexivity.
  - constructor. left; reflexivity.
  - constructor. exact IHv.
  - constructor. apply Forall2_refl_Forall. exact H.
  - apply (eq_map es es es); [apply Permutation_refl|]. apply Forall2_refl_Forall. exact H.
  - constructor. apply Forall2_refl_Forall. exact H.
  - constructor. exact IHv.
  - constructor. exact IHv.
Qed.

Definition conv (x y : tomlval) : Prop := to_toml_value x = Ok y.

Lemma Forall2_nth_r {A B} (R : A -> B -> Prop) l1 l2 j b :
  Forall2 R l1 l2 -> nth_error l2 j = Some b -> exists a, nth_error l1 j = Some a /\ R a b.
Proof.
  intro F. revert j. induction F as [|x y l1 l2 Hxy _ IH]; intros [|j] Hn; simpl in *; try discriminate.
  - injection Hn as <-. eauto.
  - apply IH. exact Hn.
Qed.
Lemma Forall2_In_r {A B} (R : A -> B -> Prop) l1 l2 b :
  Forall2 R l1 l2 -> In b l2 -> exists a, In a l1 /\ R a b.
Proof.
  induction 1 as [|x y l1 l2 Hxy _ IH]; intro Hin; [contradiction|]. destruct Hin as [->|Hin].
  - exists x. split; [left; reflexivity|exact Hxy].
  - destruct (IH Hin) as (a & Ha & Hr). exists a. split; [right; exact Ha|exact Hr].
Qed.

(* ---- inversion of to_toml_value ---- *)
Lemma ttv_inv_arr xs y : conv (VArr xs) y -> exists ys, y = VArr ys /\ Forall2 conv xs ys.
Proof.
  unfold conv. rewrite ttv_arr. intro H. apply rmap_ok in H as (ys & H & ->). exists ys. split; [reflexivity|].
  apply mapM_ok in H. exact H.
Qed.

Lemma ttv_inv_tab es y : conv (VTab es) y ->
  (exists k s rest d, es = (k, VStr s) :: rest /\ bytes_eqb k DT_FIELD = true /\ de_dt_str s = Ok d /\ y = VDatetime d)
  \/ (first_key_plain es = true /\
      exists es', Forall2 conv_rel es es' /\ NoDup (map fst es') /\ y = VTab (btree_of_pairs es')).
Proof.
  unfold conv. intro H. destruct (first_key_plain es) eqn:F.
  - right. split; [reflexivity|]. rewrite (ttv_tab_plain es F) in H. apply rbind_ok in H as (es' & E & H).
    destruct (nodup_bytes (map fst es')) eqn:N; [|discriminate H]. injection H as <-.
    exists es'. split; [apply (conv_entries_inv es es' E)|]. split; [apply nodup_bytes_NoDup; exact N|reflexivity].
  - left. destruct es as [|[k x] es]; [discriminate F|]. simpl in F. apply negb_false_iff in F.
    rewrite (ttv_tab_tunnel k x es F) in H. destruct x; try discriminate H.
    apply rmap_ok in H as (d & Hd & ->). exists k, s, es, d. auto.
Qed.

Lemma ttv_inv_leaf x y : conv x y ->
  match x with VStr _ | VInt _ | VFloat _ | VBool _ => y = x | VDatetime _ => exists d, y = VDatetime d | _ => True end.
Proof.
  unfold conv. destruct x; simpl; intro H; try (injection H as <-; reflexivity); try exact I.
  apply rmap_ok in H as (d' & _ & ->). eauto.
Qed.

(* ---- lookups in the sorted table ---- *)
Lemma tab_get_some_In k x (es : list (bytes * tomlval)) : tab_get k es = Some x -> In (k, x) es.
Proof.
  induction es as [|[k' y] es IH]; simpl; [discriminate|].
  destruct (bytes_eqb k' k) eqn:E; [apply bytes_eqb_eq in E; subst; intro H; injection H as ->; left; reflexivity|].
  intro H. right. apply IH. exact H.
Qed.

Lemma tab_get_none_notin k (es : list (bytes * tomlval)) : tab_get k es = None -> ~ In k (map fst es).
Proof.
  induction es as [|[k' y] es IH]; simpl; [tauto|].
  destruct (bytes_eqb k' k) eqn:E; [discriminate|]. intros H [Hk|Hin]; [|apply (IH H Hin)].
  apply bytes_eqb_neq in E. congruence.
Qed.

Lemma tab_get_same_entries f (l1 l2 : list (bytes * tomlval)) :
  NoDup (map fst l2) -> (forall kx, In kx l1 <-> In kx l2) -> tab_get f l1 = tab_get f l2.
Proof.
  intros N2 Hm. symmetry. destruct (tab_get f l1) as [x|] eqn:G1.
  - apply tab_get_In; [exact N2|]. apply Hm. apply tab_get_some_In. exact G1.
  - apply tab_get_notin. intro Hin. apply (tab_get_none_notin f l1 G1).
    apply in_map_iff in Hin as ([k x] & Hk & Hin). simpl in Hk; subst k. apply Hm in Hin. apply (in_map fst) in Hin. exact Hin.
Qed.

Lemma tab_get_conv f es es' : Forall2 conv_rel es es' ->
  match tab_get f es with
  | Some x => exists y, tab_get f es' = Some y /\ conv x y
  | None => tab_get f es' = None
  end.
Proof.
  induction 1 as [|[k x] [k' y] es es' [Hk Hc] _ IH]; simpl; [reflexivity|]. simpl in Hk, Hc. subst k'.
  destruct (bytes_eqb k f); [exists y; auto|exact IH].
Qed.

Lemma lookup_agree f es es' : Forall2 conv_rel es es' -> NoDup (map fst es') ->
  match tab_get f es with
  | Some x => exists y, tab_get f (btree_of_pairs es') = Some y /\ conv x y
  | None => tab_get f (btree_of_pairs es') = None
  end.
Proof.
  intros F N. destruct (btree_of_pairs_spec es' N) as [Hs Hm].
  rewrite <- (tab_get_same_entries f es' (btree_of_pairs es') (bsorted_nodup _ Hs) (fun kx => iff_sym (Hm kx))).
  apply tab_get_conv. exact F.
Qed.

(* ---- the agreement, layer by layer ---- *)
Definition agree_at : ty -> Prop := related_at True True de_value tv_de conv sval_eq.
Definition AG (t : ty) : Prop := twin_ty t = true -> agree_at t.
Definition AGV (var : variant) : Prop :=
  twin_variant var = true -> forall x y, conv x y -> agree sval_eq (de_payload var x) (tv_de_payload var y).

(* on a scalar type the two are the same function, and the conversion leaves the scalars it accepts alone *)
Lemma ag_scalar t : scalar_ty t = true -> agree_at t.
Proof.
  intros St x y C.
  destruct t; try discriminate St; destruct x; try apply agree_err_l; try (destruct w; apply agree_err_l);
    apply ttv_inv_leaf in C; simpl in C; subst y; apply rr_refl, sval_eq_refl.
Qed.

(* derive's visit_seq on both sides; toml::Value's SeqDeserializer also wants the sequence used up *)
Lemma ag_pos_read {A} (proj : A -> ty) (C : list sval -> sval) l xs ys :
  (forall a b, Forall2 sval_eq a b -> sval_eq (C a) (C b)) ->
  Forall (fun a => agree_at (proj a)) l -> Forall2 conv xs ys ->
  agree sval_eq (rmap (fun r => C (fst r)) (de_pos de_value proj l xs)) (rmap C (all_read (de_pos tv_de proj l ys))).
Proof.
  intros HC Hl F. pose proof (rr_pos True True de_value tv_de conv sval_eq proj l Hl xs ys F) as H.
  destruct (de_pos de_value proj l xs) as [r|e]; [|apply agree_err_l].
  destruct (de_pos tv_de proj l ys) as [r'|e']; [|apply agree_err_r]. destruct H as [H _].
  unfold all_read. simpl. destruct (snd r'); simpl; [apply HC; exact H|exact I].
Qed.

Lemma ag_tuple_payload ts xs ys : Forall agree_at ts -> Forall2 conv xs ys ->
  agree sval_eq (if Nat.eqb (length xs) (length ts) then rmap (fun r => SSeq (fst r)) (de_pos de_value (fun t' => t') ts xs) else Err EDe)
                (if Nat.eqb (length ys) (length ts) then rmap SSeq (all_read (de_pos tv_de (fun t' => t') ts ys)) else Err EDe).
Proof.
  intros Hts F. destruct (Nat.eqb (length xs) (length ts)); [|apply agree_err_l].
  destruct (Nat.eqb (length ys) (length ts)); [|apply agree_err_r]. exact (ag_pos_read (fun t' => t') SSeq ts xs ys eq_seq Hts F).
Qed.

Lemma conv_rel_keys es es' : Forall2 conv_rel es es' -> map fst es' = map fst es.
Proof. induction 1 as [|kx ky es es' [H _] _ IH]; simpl; congruence. Qed.

Lemma ag_struct_map fs es es' : Forall (fun ft => agree_at (snd ft)) fs ->
  Forall2 conv_rel es es' -> NoDup (map fst es') ->
  agree sval_eq (rmap SRec (de_struct_map de_value fs es)) (rmap SRec (de_struct_map tv_de fs (btree_of_pairs es'))).
Proof.
  intros IH F N. unfold de_struct_map.
  destruct (dup_field_hit (map fst fs) es); [apply agree_err_l|].
  destruct (dup_field_hit (map fst fs) (btree_of_pairs es')); [apply agree_err_r|].
  apply (rr_rmap True True (Forall2 sval_eq)); [|intros a b; apply eq_rec].
  apply (rr_fields_map True True de_value tv_de conv sval_eq); [constructor|intro f; apply lookup_agree; assumption|exact IH].
Qed.

(* ---- keys ---- *)
Lemma unit_only_inv d k vs v : find_name de_unit_only (Err d) k vs 0 = Ok v ->
  exists i, nth_error vs i = Some (k, VUnit) /\ v = SVariant i SUnit.
Proof.
  intro H. destruct (find_name_cases de_unit_only (Err d) k vs 0) as [(i & var & Hn & E)|E]; rewrite E in H; [|discriminate H].
  destruct var; try discriminate H. injection H as <-. exists i. auto.
Qed.

Lemma key_agree t : forall k a b, de_key t k = Ok a -> tv_de t (VStr k) = Ok b -> a = b.
Proof.
  induction t using ty_ind2 with (Q := fun _ => True); try exact I; intros k0 a b Ha Hb; try (simpl in Ha; discriminate Ha).
  - simpl in Ha, Hb. congruence.
  - simpl in Ha, Hb. congruence.
  - simpl in Ha. destruct (private_name n); discriminate Ha.
  - rewrite dk_newtype in Ha. rewrite td_newtype in Hb. apply rmap_ok in Ha as (a' & Ha & ->). apply rmap_ok in Hb as (b' & Hb & ->).
    rewrite (IHt k0 a' b' Ha Hb). reflexivity.
  - rewrite dk_enum in Ha. rewrite td_enum_str in Hb. congruence.
Qed.

Lemma key_inj t : key_ty_ok t = true -> forall k1 k2 a1 a2,
  de_key t k1 = Ok a1 -> de_key t k2 = Ok a2 -> k1 <> k2 -> sval_beq a1 a2 = false.
Proof.
  induction t using ty_ind2 with (Q := fun _ => True); try exact I; intros Hok k1 k2 a1 a2 H1 H2 Hne;
    try (simpl in H1; discriminate H1); try (simpl in Hok; discriminate Hok).
  - simpl in H1, H2. injection H1 as <-. injection H2 as <-. simpl. apply bytes_eqb_neq. exact Hne.
  - simpl in H1. destruct (private_name n); discriminate H1.
  - rewrite dk_newtype in H1, H2. apply rmap_ok in H1 as (b1 & H1 & ->). apply rmap_ok in H2 as (b2 & H2 & ->).
    simpl. simpl in Hok. eapply IHt; eassumption.
  - rewrite dk_enum in H1, H2.
    destruct (unit_only_inv _ _ _ _ H1) as (i1 & N1 & ->). destruct (unit_only_inv _ _ _ _ H2) as (i2 & N2 & ->).
    simpl. destruct (Nat.eqb i1 i2) eqn:E; [|reflexivity]. apply Nat.eqb_eq in E. subst i2. congruence.
Qed.

(* ---- maps ---- *)
Lemma entries_inv (dk : bytes -> result sval) (dv : tomlval -> result sval) (es : list (bytes * tomlval)) ps :
  mapM (fun kx => rbind (dk (fst kx)) (fun k => rmap (fun v => (k, v)) (dv (snd kx)))) es = Ok ps ->
  Forall2 (fun kx p => dk (fst kx) = Ok (fst p) /\ dv (snd kx) = Ok (snd p)) es ps.
Proof.
  intro D. apply mapM_ok in D. eapply Forall2_impl; [|exact D]. intros [k x] [a v] H. simpl in H.
  apply rbind_ok in H as (a' & Ha & H). apply rmap_ok in H as (v' & Hv & E). injection E as -> ->. split; assumption.
Qed.

(* keys that are distinct as texts stay distinct once decoded, by whichever family (dk) *)
Lemma decoded_keys_distinct kt (dk : bytes -> result sval) (l : list (bytes * tomlval)) (ps : list (sval * sval)) :
  key_ty_ok kt = true -> NoDup (map fst l) ->
  (forall k a, In k (map fst l) -> dk k = Ok a -> de_key kt k = Ok a) ->
  Forall2 (fun kx p => dk (fst kx) = Ok (fst p)) l ps ->
  ForallOrdPairs (fun p q => sval_beq (fst p) (fst q) = false) ps.
Proof.
  intros Hok N Hdk F2. induction F2 as [|[k x] [a v] l1 l2 Ka F2 IH]; [constructor|].
  simpl in N. inversion N as [|? ? Hnot N']; subst. constructor.
  - rewrite Forall_forall. intros [a' v'] Hin.
    destruct (Forall2_In_r _ _ _ _ F2 Hin) as ([k' x'] & Hin' & Ka'). apply (in_map fst) in Hin'. simpl in *.
    eapply (key_inj kt Hok k k'); [exact (Hdk k a (or_introl eq_refl) Ka)|exact (Hdk k' a' (or_intror Hin') Ka')|].
    intros ->. exact (Hnot Hin').
  - apply IH; [exact N'|]. intros k0 a0 Hin0. apply Hdk. right. exact Hin0.
Qed.

Lemma ag_map kt vt : key_ty_ok kt = true -> agree_at vt -> forall es es' vs1 vs2,
  Forall2 conv_rel es es' -> NoDup (map fst es') ->
  de_entries kt vt es = Ok vs1 -> tvd_entries kt vt (btree_of_pairs es') = Ok vs2 ->
  sval_eq (SMap (smap_of_pairs vs1)) (SMap (smap_of_pairs vs2)).
Proof.
  intros Hok IHv es es' ps1 ps2 F N D1 D2.
  pose proof (btree_of_pairs_perm es' N) as Hperm. destruct (btree_of_pairs_spec es' N) as [Hsorted _].
  set (bt := btree_of_pairs es') in *.
  pose proof (entries_inv (de_key kt) (de_value vt) es ps1 D1) as F1.
  pose proof (entries_inv (fun k => tv_de kt (VStr k)) (tv_de vt) bt ps2 D2) as F2.
  (* the value side in insertion order: entry by entry the same key and agreeing values *)
  destruct (Permutation_Forall2 (Permutation_sym Hperm) F2) as (ps2' & Hperm2 & F2').
  assert (E : Forall2 (fun p q => sval_eq (fst p) (fst q) /\ sval_eq (snd p) (snd q)) ps1 ps2').
  { clear - F F1 F2' IHv. revert ps1 ps2' F1 F2'. induction F as [|[k x] [k' y] es es' [Hk Hc] _ IH]; intros ps1 ps2' F1 F2'.
    - inversion F1; subst. inversion F2'; subst. constructor.
    - inversion F1 as [|? [a1 v1] ? ? [Ka Va] F1']; subst. inversion F2' as [|? [a2 v2] ? ? [Kb Vb] F2'']; subst.
      simpl in *. subst k'. rewrite (key_agree kt k a1 a2 Ka Kb).
      constructor; [split; [apply sval_eq_refl|exact (agree_ok _ _ _ _ _ (IHv x y Hc) Va Vb)]|apply IH; assumption]. }
  (* no two keys are equal, on either side *)
  assert (Hd1 : ForallOrdPairs (fun p q => sval_beq (fst p) (fst q) = false) ps1).
  { apply (decoded_keys_distinct kt (de_key kt) es ps1 Hok); [rewrite <- (conv_rel_keys es es' F); exact N|auto|].
    eapply Forall2_impl; [|exact F1]. intros kx p [H _]. exact H. }
  assert (Hd2 : ForallOrdPairs (fun p q => sval_beq (fst p) (fst q) = false) ps2).
  { apply (decoded_keys_distinct kt (fun k => tv_de kt (VStr k)) bt ps2 Hok (bsorted_nodup _ Hsorted)).
    - intros k a Hin Ha. apply (Permutation_in _ (Permutation_map fst (Permutation_sym Hperm))) in Hin.
      rewrite (conv_rel_keys es es' F) in Hin. apply in_map_iff in Hin as ([k0 x0] & Hk0 & Hin). simpl in Hk0. subst k0.
      destruct (Forall2_In_l _ _ _ _ F1 Hin) as ([a' v'] & _ & [Ka _]). simpl in Ka.
      rewrite <- (key_agree kt k a' a Ka Ha). exact Ka.
    - eapply Forall2_impl; [|exact F2]. intros kx p [H _]. exact H. }
  rewrite (smap_of_pairs_distinct ps1 Hd1), (smap_of_pairs_distinct ps2 Hd2).
  exact (eq_map ps1 ps2 ps2' Hperm2 E).
Qed.

(* ---- tuple variants written as tables with the keys "0", "1", ... ---- *)
Lemma index_keys_spec es : forall i xs, index_keys i es = Some xs ->
  xs = map snd es /\ forall j kx, nth_error es j = Some kx -> parse_usize (fst kx) = Some (i + N.of_nat j)%N.
Proof.
  induction es as [|[k x] es IH]; intros i xs H; simpl in H.
  - injection H as <-. split; [reflexivity|]. intros [|j] kx Hn; discriminate Hn.
  - destruct (parse_usize k) as [n|] eqn:P; [|discriminate H]. destruct (n =? i)%N eqn:E; [|discriminate H].
    apply N.eqb_eq in E. subst n. destruct (index_keys (i + 1) es) as [xs'|] eqn:R; [|discriminate H].
    simpl in H. injection H as <-. destruct (IH (i + 1)%N xs' R) as [-> Hj].
    split; [reflexivity|]. intros [|j] kx Hn; simpl in Hn.
    + injection Hn as <-. simpl. rewrite P. f_equal. lia.
    + rewrite (Hj j kx Hn). f_equal. lia.
Qed.

Lemma indexed_perm_eq (l1 l2 : list (bytes * tomlval)) : forall i,
  Permutation l1 l2 ->
  (forall j kx, nth_error l1 j = Some kx -> parse_usize (fst kx) = Some (i + N.of_nat j)%N) ->
  (forall j kx, nth_error l2 j = Some kx -> parse_usize (fst kx) = Some (i + N.of_nat j)%N) ->
  l1 = l2.
Proof.
  revert l2. induction l1 as [|a l1 IH]; intros l2 i Hp H1 H2.
  - apply Permutation_nil in Hp. subst. reflexivity.
  - destruct l2 as [|b l2]; [apply Permutation_sym, Permutation_nil in Hp; discriminate Hp|].
    assert (Hab : a = b).
    { pose proof (H1 0%nat a eq_refl) as Pa. pose proof (H2 0%nat b eq_refl) as Pb.
      assert (Hin : In b (a :: l1)) by (apply (Permutation_in _ (Permutation_sym Hp)); left; reflexivity).
      destruct Hin as [E|Hin]; [exact E|]. exfalso.
      apply In_nth_error in Hin as (j & Hj). pose proof (H1 (S j) b Hj) as Pb'. rewrite Pb in Pb'. injection Pb' as Pb'. lia. }
    subst b. f_equal. apply (IH l2 (i + 1)%N).
    + apply Permutation_cons_inv in Hp. exact Hp.
    + intros j kx Hn. rewrite (H1 (S j) kx Hn). f_equal. lia.
    + intros j kx Hn. rewrite (H2 (S j) kx Hn). f_equal. lia.
Qed.

Lemma ag_index_keys es es' xs ys : Forall2 conv_rel es es' -> NoDup (map fst es') ->
  index_keys 0 es = Some xs -> index_keys 0 (btree_of_pairs es') = Some ys -> Forall2 conv xs ys.
Proof.
  intros F N Hx Hy. destruct (index_keys_spec es 0 xs Hx) as [-> H1]. destruct (index_keys_spec _ 0 ys Hy) as [-> H2].
  assert (E : btree_of_pairs es' = es').
  { symmetry. apply (indexed_perm_eq es' (btree_of_pairs es') 0 (btree_of_pairs_perm es' N)); [|exact H2].
    intros j [k y] Hn.
    destruct (Forall2_nth_r _ _ _ _ _ F Hn) as ([k0 x0] & Hn0 & [Hk _]). simpl in *. subst k.
    apply (H1 j (k0, x0) Hn0). }
  rewrite E. clear - F. induction F as [|[k x] [k' y] es es' [_ Hc] _ IH]; simpl; constructor; [exact Hc|exact IH].
Qed.

(* ---- further unfolding equations ---- *)
Lemma dv_struct_arr n fs xs : de_value (TStruct n fs) (VArr xs) =
  if private_name n then Err EUnmodelled else rmap (fun r => SRec (fst r)) (de_pos de_value (fun ft => snd ft) fs xs).
Proof. reflexivity. Qed.
Lemma td_struct_arr n fs xs : tv_de (TStruct n fs) (VArr xs) = rmap SRec (all_read (de_pos tv_de (fun ft => snd ft) fs xs)).
Proof. reflexivity. Qed.
Lemma dp_tuple_tab ts es : de_payload (VTuple ts) (VTab es) =
  match index_keys 0 es with
  | Some xs => if Nat.eqb (length xs) (length ts) then rmap (fun r => SSeq (fst r)) (de_pos de_value (fun t' => t') ts xs) else Err EDe
  | None => Err EDe end.
Proof. reflexivity. Qed.
Lemma tdp_tuple_tab ts es : tv_de_payload (VTuple ts) (VTab es) =
  match index_keys 0 es with
  | Some xs => if Nat.eqb (length xs) (length ts) then rmap SSeq (all_read (de_pos tv_de (fun t' => t') ts xs)) else Err EDe
  | None => Err EDe end.
Proof. reflexivity. Qed.
Lemma dp_struct_arr fs xs : de_payload (VStruct fs) (VArr xs) = rmap (fun r => SRec (fst r)) (de_pos de_value (fun ft => snd ft) fs xs).
Proof. reflexivity. Qed.
Lemma tdp_struct_arr fs xs : tv_de_payload (VStruct fs) (VArr xs) = rmap SRec (all_read (de_pos tv_de (fun ft => snd ft) fs xs)).
Proof. reflexivity. Qed.

Lemma ag_Forall ts : Forall AG ts -> forallb twin_ty ts = true -> Forall agree_at ts.
Proof.
  intros H Hb. rewrite forallb_forall in Hb. rewrite Forall_forall in *. intros t Hin. exact (H t Hin (Hb t Hin)).
Qed.
Lemma ag_Forall_fields (fs : list (bytes * ty)) : Forall (fun ft => AG (snd ft)) fs ->
  forallb (fun ft => twin_ty (snd ft)) fs = true -> Forall (fun ft => agree_at (snd ft)) fs.
Proof.
  intros H Hb. rewrite forallb_forall in Hb. rewrite Forall_forall in *. intros ft Hin. exact (H ft Hin (Hb ft Hin)).
Qed.

Lemma btree_single k y : btree_of_pairs [(k, y)] = [(k, y)].
Proof. reflexivity. Qed.

Theorem twins_agree : forall t, AG t.
Proof.
  induction t using ty_ind2 with (Q := AGV); unfold AG, AGV, agree_at, related_at in *;
    try (intros _; apply ag_scalar; reflexivity).
  - (* TDatetime: both families go through toml_datetime's tunnel; what was parsed prints and parses back (C12) *)
    intros _ x y C. apply agree_intro. intros v1 v2 D1 D2.
    assert (Hpp : forall s0 d0, de_dt_str s0 = Ok d0 -> de_dt_str (display_datetime d0) = Ok d0).
    { intros s0 d0 H0. unfold de_dt_str in *. destruct (std_from_str s0) as [d1|] eqn:P; [|discriminate H0]. injection H0 as ->.
      rewrite (print_parse_std d0 (closed s0 d0 P)). reflexivity. }
    assert (Hfin : forall d', de_dt_str (display_datetime d') = Ok d' ->
                   rbind (Ok d') (dt_kind_check k) = Ok v1 -> tv_de (TDatetime k) (VDatetime d') = Ok v2 -> sval_eq v1 v2).
    { intros d' Hd' E1 E2. cbn [tv_de tv_de_datetime] in E2. rewrite Hd' in E2. simpl in E1, E2.
      assert (v1 = v2) by congruence. subst v2. unfold dt_kind_check in E1. destruct (dt_kind_ok k d'); [|discriminate E1].
      injection E1 as <-. constructor. }
    destruct x; try (simpl in D1; discriminate D1).
    + (* a date-time *)
      unfold conv in C. simpl in C. apply rmap_ok in C as (d' & Hd & ->).
      cbn [de_value de_datetime] in D1. rewrite Hd in D1. apply (Hfin d' (Hpp _ _ Hd) D1 D2).
    + (* a table: the private key first *)
      apply ttv_inv_tab in C as [(k0 & s0 & rest & d' & -> & Hk & Hd & ->)|(Hf & _)].
      * cbn [de_value de_datetime] in D1. rewrite Hk, Hd in D1. apply (Hfin d' (Hpp _ _ Hd) D1 D2).
      * destruct es as [|[k0 y0] es]; [simpl in D1; discriminate D1|]. simpl in Hf. apply negb_true_iff in Hf.
        cbn [de_value de_datetime] in D1. rewrite Hf in D1. simpl in D1. discriminate D1.
  - (* TOpt *) intros Htw x y C. rewrite dv_opt, td_opt.
    apply (rr_rmap True True sval_eq); [exact (IHt Htw x y C)|intros a b; apply eq_some].
  - (* TSeq *) intros Htw x y C. destruct x; try apply agree_err_l.
    apply ttv_inv_arr in C as (ys & -> & F). rewrite dv_seq, td_seq.
    apply (rr_rmap True True (Forall2 sval_eq)); [|intros a b; apply eq_seq].
    exact (rr_seq True True de_value tv_de conv sval_eq t xs ys (IHt Htw) F).
  - (* TTuple *) intros Htw x y C. destruct x; try apply agree_err_l.
    apply ttv_inv_arr in C as (ys & -> & F). exact (ag_pos_read (fun t' => t') SSeq ts xs ys eq_seq (ag_Forall ts H Htw) F).
  - (* TMap *) intros Htw x y C. simpl in Htw. apply andb_true_iff in Htw as [Htw Hv]. apply andb_true_iff in Htw as [Hk _].
    destruct x; try apply agree_err_l.
    apply ttv_inv_tab in C as [(k0' & s0' & rest' & d' & _ & _ & _ & ->)|(_ & es' & F & N & ->)]; [apply agree_err_r|].
    rewrite dv_map, td_map. apply agree_intro. intros v1 v2 D1 D2.
    apply rmap_ok in D1 as (a & D1 & ->). apply rmap_ok in D2 as (b & D2 & ->).
    apply (ag_map t1 t2 Hk (IHt2 Hv) es es' a b F N D1 D2).
  - (* TStruct *) intros Htw x y C. simpl in Htw. pose proof (ag_Forall_fields fs H Htw) as Hfs.
    cbn [de_value]. destruct (private_name n); [apply agree_err_l|]. destruct x; try apply agree_err_l.
    + apply ttv_inv_arr in C as (ys & -> & F). exact (ag_pos_read (fun ft => snd ft) SRec fs xs ys eq_rec Hfs F).
    + apply ttv_inv_tab in C as [(k0' & s0' & rest' & d' & _ & _ & _ & ->)|(_ & es' & F & N & ->)]; [apply agree_err_r|].
      exact (ag_struct_map fs es es' Hfs F N).
  - (* TNewtype *) intros Htw x y C. rewrite dv_newtype, td_newtype.
    apply (rr_rmap True True sval_eq); [exact (IHt Htw x y C)|intros a b; apply eq_newtype].
  - (* TTupleStruct *) intros Htw x y C. destruct x; try apply agree_err_l.
    apply ttv_inv_arr in C as (ys & -> & F). exact (ag_pos_read (fun t' => t') SSeq ts xs ys eq_seq (ag_Forall ts H Htw) F).
  - (* TEnum *) intros Htw x y C. simpl in Htw. destruct x; try apply agree_err_l.
    + apply ttv_inv_leaf in C. simpl in C. subst y. apply rr_refl, sval_eq_refl.
    + destruct es as [|[k yv] [|? ?]]; try apply agree_err_l.
      apply ttv_inv_tab in C as [(k0' & s0' & rest' & d' & _ & _ & _ & ->)|(_ & es' & F & N & ->)]; [apply agree_err_r|].
      inversion F as [|? [k' y1] ? ? [Hk Hc] F']; subst. inversion F'; subst. simpl in Hk. subst k'. simpl in Hc.
      rewrite btree_single, dv_enum_tab, td_enum_tab. apply rr_find_name.
      rewrite forallb_forall in Htw. rewrite Forall_forall in *. intros [vn var] Hin i. simpl.
      apply (rr_rmap True True sval_eq); [exact (H (vn, var) Hin (Htw (vn, var) Hin) yv y1 Hc)|intros a b; apply eq_variant].
  - (* VUnit *) intros _ x y C. cbn [de_payload tv_de_payload].
    destruct (empty_container x); [|apply agree_err_l]. destruct (empty_container y); [|apply agree_err_r]. constructor.
  - (* VNewtype *) intros Htw x y C. exact (IHt Htw x y C).
  - (* VTuple *) intros Htw x y C. simpl in Htw. pose proof (ag_Forall ts H Htw) as Hts. destruct x; try apply agree_err_l.
    + apply ttv_inv_arr in C as (ys & -> & F). exact (ag_tuple_payload ts xs ys Hts F).
    + apply ttv_inv_tab in C as [(k0' & s0' & rest' & d' & _ & _ & _ & ->)|(_ & es' & F & N & ->)]; [apply agree_err_r|].
      rewrite dp_tuple_tab, tdp_tuple_tab.
      destruct (index_keys 0 es) as [xs|] eqn:I1; [|apply agree_err_l].
      destruct (index_keys 0 (btree_of_pairs es')) as [ys|] eqn:I2; [|apply agree_err_r].
      exact (ag_tuple_payload ts xs ys Hts (ag_index_keys es es' xs ys F N I1 I2)).
  - (* VStruct *) intros Htw x y C. simpl in Htw. pose proof (ag_Forall_fields fs H Htw) as Hfs. destruct x; try apply agree_err_l.
    + apply ttv_inv_arr in C as (ys & -> & F). exact (ag_pos_read (fun ft => snd ft) SRec fs xs ys eq_rec Hfs F).
    + apply ttv_inv_tab in C as [(k0' & s0' & rest' & d' & _ & _ & _ & ->)|(_ & es' & F & N & ->)]; [apply agree_err_r|].
      rewrite dp_struct, tdp_struct. destruct (struct_keys_ok (map fst fs) es); [|apply agree_err_l].
      exact (ag_struct_map fs es es' Hfs F N).
Qed.

Corollary twins_agree_ok t x y v1 v2 :
  twin_ty t = true -> conv x y -> de_value t x = Ok v1 -> tv_de t y = Ok v2 -> sval_eq v1 v2.
Proof. intros Htw C. exact (agree_ok _ _ _ _ _ (twins_agree t Htw x y C)). Qed.
