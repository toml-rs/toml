(* Proofs/RoutesDecode.v — C13: all decoding routes, as functions of the tree the text parses to,
   return equal values whenever they succeed. *)
From TV Require Import Base.Prelude Spec.SerdeData Model.De Model.SerdeRoutes Proofs.SerdeRTBase Proofs.RoutesConv
  Proofs.RoutesTwins Proofs.RoutesTop.
From Coq Require Import Permutation.

Definition value_family (r : dec_route) : bool := negb (edit_family r).
Definition uses_table_route (r : dec_route) : bool := match r with R_ttab => true | _ => false end.

Lemma decode_value r t x : value_family r = true -> (uses_table_route r = true -> plain_root x = true) ->
  decode r t x = rbind (to_toml_value x) (tv_de t).
Proof.
  destruct r; try discriminate; intros _ Hp; try reflexivity.
  simpl. rewrite (plain_root_same x (Hp eq_refl)). reflexivity.
Qed.

(* all decoding routes agree *)
Theorem decode_routes_agree t x r1 r2 v1 v2 : twin_ty t = true ->
  (uses_table_route r1 = true \/ uses_table_route r2 = true -> plain_root x = true) ->
  decode r1 t x = Ok v1 -> decode r2 t x = Ok v2 -> sval_eq v1 v2 \/ sval_eq v2 v1.
Proof.
  intros Htw Hp D1 D2.
  destruct (edit_family r1) eqn:E1; destruct (edit_family r2) eqn:E2.
  - rewrite (decode_edit r1 t x E1) in D1. rewrite (decode_edit r2 t x E2) in D2.
    left. assert (v1 = v2) by congruence. subst. apply sval_eq_refl.
  - rewrite (decode_edit r1 t x E1) in D1.
    rewrite (decode_value r2 t x) in D2; [|unfold value_family; rewrite E2; reflexivity|intro U; apply Hp; right; exact U].
    apply rbind_ok in D2 as (y & C & D2). left. exact (twins_agree_ok t x y v1 v2 Htw C D1 D2).
  - rewrite (decode_edit r2 t x E2) in D2.
    rewrite (decode_value r1 t x) in D1; [|unfold value_family; rewrite E1; reflexivity|intro U; apply Hp; left; exact U].
    apply rbind_ok in D1 as (y & C & D1). right. exact (twins_agree_ok t x y v2 v1 Htw C D2 D1).
  - rewrite (decode_value r1 t x) in D1; [|unfold value_family; rewrite E1; reflexivity|intro U; apply Hp; left; exact U].
    rewrite (decode_value r2 t x) in D2; [|unfold value_family; rewrite E2; reflexivity|intro U; apply Hp; right; exact U].
    left. assert (v1 = v2) by congruence. subst. apply sval_eq_refl.
Qed.
