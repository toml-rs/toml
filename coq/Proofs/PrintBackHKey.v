(* Proofs/PrintBackHKey.v — C03, class (c): the keys of a header.  Every key object that `key` builds
   prints as a simple key between blanks (`hkey`), so a path of such keys — whichever headers they
   came from — prints as the text of a key path; and if that text, between the brackets, is what
   stands in the source where a header was read, it is the text of that header. *)
From TV Require Import Base.Prelude Base.Winnow Gen.Consts Spec.Lex Spec.Syntax.
From TV Require Import Model.Tree Model.Parse Model.Encode.
From TV Require Import Proofs.LexEquivBase Proofs.GrammarSep Proofs.LexEquivKey
                       Proofs.TilingDefs Proofs.PrintBackBase Proofs.PrintBackEnc Proofs.PrintBackKey
                       Proofs.PrintBackEnts.
From TV Require Import Proofs.ModelFacts.
Require Import Lia ZifyBool ZifyN ZifyNat.

Definition blankraw (s : bytes) (o : option raw) : Prop :=
  match toraw s o with
  | None => True
  | Some REmpty => True
  | Some (RExplicit w) => ws_tok w
  | Some (RSpanned _ _) => False
  end.

Definition hkey (s : bytes) (k : key) : Prop :=
  (exists t, repr_str (toraw s (k_repr k)) = Some t /\ simple_key_tok t (k_key k))
  /\ blankraw s (d_prefix (k_leaf k)) /\ blankraw s (d_suffix (k_leaf k))
  /\ blankraw s (d_prefix (k_dotted k)) /\ blankraw s (d_suffix (k_dotted k)).

Lemma blank_empty s : blankraw s (Some REmpty).
Proof. exact I. Qed.
Lemma blank_none s : blankraw s None.
Proof. exact I. Qed.

Lemma span_blank s i w i' : isrc s i -> splits i w i' -> ws_tok w -> blankraw s (Some (raw_with_span (pos i, pos i'))).
Proof.
  intros Hi S Hw. unfold blankraw, raw_with_span. cbn [fst snd toraw]. destruct (pos i =? pos i')%N; [exact I|]. cbn [traw].
  destruct (isrc_splits s i w i' Hi S) as [_ ->]. unfold raw_of_bytes. destruct w; [exact I|exact Hw].
Qed.

Lemma key_part_hkey s i a i1 : isrc s i -> key_part i = Ok a i1 -> hkey s a /\ isrc s i1.
Proof.
  intros Hi H. destruct (key_part_exact i a i1 H) as (j1 & j2 & w0 & t & w & Hw0 & Ht & Hw & S1 & S2 & S3 & Ea).
  destruct (isrc_splits s i w0 j1 Hi S1) as [Hi1 _]. destruct (isrc_splits s j1 t j2 Hi1 S2) as [Hi2 _].
  destruct (isrc_splits s j2 w i1 Hi2 S3) as [Hi3 _]. split; [|exact Hi3].
  rewrite Ea. unfold hkey. cbn [k_key k_repr k_leaf k_dotted decor_default decor_new d_prefix d_suffix].
  split; [exists t; split; [apply (span_repr s j1 t j2 Hi1 S2)|exact Ht]|].
  split; [exact I|]. split; [exact I|]. split; [apply (span_blank s i w0 j1 Hi S1 Hw0)|apply (span_blank s j2 w i1 Hi2 S3 Hw)].
Qed.

Lemma key_seps_hkey s i l i' : isrc s i -> seps key_part dot_sep i l i' -> Forall (hkey s) l.
Proof.
  intros Hi R. induction R as [i F|i x i1 E Hlt F|i x i1 a i2 l i3 E Hlt E2 Hle R IH]; [constructor|constructor|].
  apply byte_inv in E as [_ S1]. destruct (isrc_splits s i [x2e] i1 Hi S1) as [Hi1 _].
  destruct (key_part_hkey s i1 a i2 Hi1 E2) as [Hk Hi2]. constructor; [exact Hk|apply IH, Hi2].
Qed.

Lemma fix_key_path_hkey s path p : Forall (hkey s) path -> fix_key_path path = Some p -> Forall (hkey s) p.
Proof.
  intros HF Hf. unfold fix_key_path in Hf. destruct path as [|first tl]; [discriminate|]. inversion HF as [|? ? Hfirst Htl]; subst.
  set (first' := match d_prefix (k_dotted first) with Some _ => set_dotted_prefix first REmpty | None => first end) in *.
  set (leaf_pre := match d_prefix (k_dotted first) with Some p => p | None => REmpty end) in *.
  assert (Hf' : hkey s first').
  { unfold first'. destruct (d_prefix (k_dotted first)); [|exact Hfirst]. destruct Hfirst as (H1 & H2 & H3 & H4 & H5).
    unfold hkey. cbn [set_dotted_prefix k_key k_repr k_leaf k_dotted d_prefix d_suffix]. repeat split; try assumption. }
  assert (Hlp : blankraw s (Some leaf_pre)).
  { unfold leaf_pre. destruct Hfirst as (_ & _ & _ & H4 & _). destruct (d_prefix (k_dotted first)); [exact H4|exact I]. }
  assert (HF' : Forall (hkey s) (rev (first' :: tl))) by (apply Forall_rev; constructor; assumption).
  destruct (rev (first' :: tl)) as [|last rinit]; [discriminate|]. injection Hf as <-. inversion HF' as [|? ? Hlast Hinit]; subst.
  cbn [rev]. apply Forall_app. split; [apply Forall_rev, Hinit|]. constructor; [|constructor].
  destruct Hlast as (H1 & H2 & H3 & H4 & H5).
  assert (Hls : blankraw s (Some (match d_suffix (k_dotted last) with Some p => p | None => REmpty end)))
    by (destruct (d_suffix (k_dotted last)); [exact H5|exact I]).
  destruct (d_suffix (k_dotted last)) eqn:Es; unfold hkey;
    cbn [set_leaf set_dotted_suffix k_key k_repr k_leaf k_dotted decor_new d_prefix d_suffix]; repeat split; try assumption.
  rewrite Es. exact I.
Qed.

Theorem key_hkeys s i kp i' : isrc s i -> key_ i = Ok kp i' -> Forall (hkey s) kp.
Proof.
  intros Hi H. destruct (key_read i kp i' H) as (a & i1 & l & Ea & R & Ef).
  destruct (key_part_hkey s i a i1 Hi Ea) as [Ha Hi1]. apply (fix_key_path_hkey s (a :: l) _); [|exact Ef].
  constructor; [exact Ha|apply (key_seps_hkey s i1 l i' Hi1 R)].
Qed.

(* ---- what a blank decor prints -------------------------------------------------------------------------------- *)
Lemma blank_encode s o dflt : blankraw s o -> ws_tok dflt ->
  ws_tok (match toraw s o with Some r => raw_encode r dflt | None => dflt end).
Proof.
  unfold blankraw. destruct (toraw s o) as [[|w|a b]|]; intros H Hd; try exact Hd; try reflexivity; [|destruct H].
  unfold raw_encode. change (strip_cr w) with (ncr w). rewrite (ncr_ws w H). exact H.
Qed.

Lemma blank_raw_blank s o : blankraw s o -> raw_blank (toraw s o) = true.
Proof.
  unfold blankraw, raw_blank. destruct (toraw s o) as [[|w|a b]|]; intro H; try reflexivity. unfold ws_tok, all in H.
  rewrite forallb_forall in *. intros b Hb. specialize (H b Hb). revert H. cls. lia.
Qed.

Lemma loop_cons leaf d first k tl :
  encode_key_path_loop leaf d first (k :: tl)
  = (if first then decor_prefix leaf (fst d) else [x2e] ++ decor_prefix (k_dotted k) (fst DEFAULT_KEY_PATH_DECOR))
    ++ key_display_repr k
    ++ (if match tl with [] => true | _ => false end then decor_suffix leaf (snd d) else decor_suffix (k_dotted k) (snd DEFAULT_KEY_PATH_DECOR))
    ++ encode_key_path_loop leaf d false tl.
Proof. reflexivity. Qed.

(* the loop of encode_key_path over keys read from headers *)
Lemma loop_shape s leaf : blankraw s (d_prefix leaf) -> blankraw s (d_suffix leaf) ->
  forall ks first, Forall (hkey s) ks -> ks <> [] ->
  exists w1 t w2, ws_tok w1 /\ key_tok t (map k_key ks) /\ ws_tok w2
    /\ encode_key_path_loop (tdecor s leaf) DEFAULT_KEY_PATH_DECOR first (map (tkey s) ks)
       = (if first then [] else [x2e]) ++ w1 ++ t ++ w2.
Proof.
  intros Hlp Hls. induction ks as [|k ks IH]; intros first HF Hne; [congruence|]. inversion HF as [|? ? Hk HF']; subst.
  destruct Hk as ((t & Hr & Ht) & _ & _ & Hdp & Hds).
  assert (Hrepr : key_display_repr (tkey s k) = t) by (unfold key_display_repr; rewrite tkey_fields; cbn [k_repr]; rewrite Hr; reflexivity).
  assert (Hpre : exists w1, ws_tok w1 /\ (if first then decor_prefix (tdecor s leaf) (fst DEFAULT_KEY_PATH_DECOR)
              else [x2e] ++ decor_prefix (k_dotted (tkey s k)) (fst DEFAULT_KEY_PATH_DECOR)) = (if first then [] else [x2e]) ++ w1).
  { destruct first.
    - eexists. split; [|reflexivity]. unfold decor_prefix, tdecor. cbn [d_prefix]. apply (blank_encode s _ _ Hlp ws_nil).
    - eexists. split; [|reflexivity]. rewrite tkey_fields. unfold decor_prefix, tdecor. cbn [k_dotted d_prefix]. apply (blank_encode s _ _ Hdp ws_nil). }
  destruct Hpre as (w1 & Hw1 & Epre).
  destruct ks as [|k2 ks].
  - exists w1, t, (decor_suffix (tdecor s leaf) (snd DEFAULT_KEY_PATH_DECOR)). split; [exact Hw1|]. split; [apply key_one, Ht|].
    split; [unfold decor_suffix, tdecor; cbn [d_suffix]; apply (blank_encode s _ _ Hls ws_nil)|].
    cbn [map]. rewrite loop_cons. destruct first; cbv iota; rewrite Epre, Hrepr; cbn [encode_key_path_loop]; rewrite app_nil_r, <- !app_assoc; reflexivity.
  - destruct (IH false HF' ltac:(discriminate)) as (w1' & t' & w2' & Hw1' & Ht' & Hw2' & E').
    set (wa := decor_suffix (k_dotted (tkey s k)) (snd DEFAULT_KEY_PATH_DECOR)).
    assert (Hwa : ws_tok wa) by (unfold wa; rewrite tkey_fields; unfold decor_suffix, tdecor; cbn [k_dotted d_suffix]; apply (blank_encode s _ _ Hds ws_nil)).
    exists w1, (t ++ wa ++ [x2e] ++ w1' ++ t'), w2'. split; [exact Hw1|]. split; [apply key_dot; assumption|]. split; [exact Hw2'|].
    change (map (tkey s) (k :: k2 :: ks)) with (tkey s k :: map (tkey s) (k2 :: ks)).
    rewrite loop_cons, E'.
    assert (Hl : match map (tkey s) (k2 :: ks) with [] => true | _ => false end = false) by reflexivity. rewrite Hl.
    fold wa. destruct first; cbv iota; rewrite Epre, Hrepr; rewrite <- !app_assoc; reflexivity.
Qed.

Theorem hdr_shape s p a : Forall (hkey s) p -> p <> [] ->
  exists w1 t w2, ws_tok w1 /\ key_tok t (map k_key p) /\ ws_tok w2 /\ hdr_text s p a = hdr_open a ++ (w1 ++ t ++ w2) ++ hdr_close a.
Proof.
  intros HF Hne. destruct (exists_last Hne) as (init & last & ->).
  assert (Hlast : hkey s last) by (apply Forall_app in HF as [_ H]; inversion H; assumption).
  destruct Hlast as (_ & Hlp & Hls & _).
  assert (E0 : hdr_text s (init ++ [last]) a
               = hdr_open a ++ encode_key_path_loop (tdecor s (k_leaf last)) DEFAULT_KEY_PATH_DECOR true (map (tkey s) (init ++ [last])) ++ hdr_close a).
  { assert (Hb : raw_blank (d_prefix (k_leaf (tkey s last))) = true) by (apply (blank_raw_blank s _ Hlp)).
    unfold hdr_text, encode_key_comments, encode_header_key_path. rewrite (map_app (tkey s)), rev_app_distr. cbn [map rev app].
    rewrite Hb. reflexivity. }
  destruct (loop_shape s (k_leaf last) Hlp Hls (init ++ [last]) true HF Hne) as (w1 & t & w2 & Hw1 & Ht & Hw2 & E).
  exists w1, t, w2. split; [exact Hw1|]. split; [exact Ht|]. split; [exact Hw2|]. rewrite E0, E. reflexivity.
Qed.

(* ---- a header read at a position of the source ------------------------------------------------------------- *)
Definition hdr_at (s : bytes) (start : N) (a : bool) (Y : bytes) : Prop :=
  exists i j kp j' r, isrc s i /\ pos i = start /\ splits i (hdr_open a) j /\ key_ j = Ok kp j' /\ splits j Y j' /\ rest j' = hdr_close a ++ r.

Definition starts_with (h t : bytes) : bool := match strip_prefix h t with Some _ => true | None => false end.

Lemma isrc_skipn s i : isrc s i -> skipn (N.to_nat (pos i)) s = rest i.
Proof. intros (p & -> & Ep). rewrite Ep, Nnat.Nat2N.id. apply skipn_app_len. Qed.

Lemma app_same_length {A} (x y r1 r2 : list A) : x ++ r1 = y ++ r2 -> length x = length y -> x = y.
Proof.
  revert y. induction x as [|a x IH]; intros [|b y] H L; try discriminate; [reflexivity|]. cbn [app] in H. injection H as -> H.
  f_equal. apply (IH y H). cbn [length] in L. lia.
Qed.

Theorem hdr_unique s p a start Y : Forall (hkey s) p -> p <> [] -> hdr_at s start a Y ->
  starts_with (hdr_text s p a) (skipn (N.to_nat start) s) = true -> hdr_text s p a = hdr_open a ++ Y ++ hdr_close a.
Proof.
  intros HF Hne (i & j & kp & j' & r & Hi & Ep & So & Hk & SY & Rc) Hs.
  destruct (hdr_shape s p a HF Hne) as (w1 & t & w2 & Hw1 & Ht & Hw2 & E). rewrite E in *.
  unfold starts_with in Hs. destruct (strip_prefix _ _) as [r2|] eqn:Q; [|discriminate]. apply strip_prefix_spec in Q.
  rewrite <- Ep, (isrc_skipn s i Hi) in Q. destruct So as [Ro Ej]. rewrite Ro in Q. rewrite <- !app_assoc in Q. apply app_inv_head in Q.
  (* the key parser reads exactly w1 t w2 at j *)
  assert (Hstop : key_stop (hdr_close a ++ r2)) by (destruct a; eexists _, _; (split; [reflexivity|right; reflexivity])).
  destruct (key_raw_complete j w1 t _ w2 _ Hw1 Ht Hw2 Q Hstop) as (path & Epath & _).
  rewrite key_unfold in Hk. apply bind_inv in Hk as (path1 & j1 & H1 & H). apply try_map_inv in H1 as (path0 & H1 & _).
  rewrite Epath in H1. injection H1 as _ Ej1.
  assert (Ej' : j' = j1). { destruct (fix_key_path path1); [apply ret_inv in H as [_ <-]; reflexivity|discriminate]. }
  destruct SY as [RY EY]. rewrite Ej', <- Ej1 in EY.
  assert (L : length (w1 ++ t ++ w2) = length Y).
  { apply (f_equal pos) in EY. rewrite !pos_adv in EY. lia. }
  f_equal. f_equal. rewrite Q in RY.
  assert (RY' : (w1 ++ t ++ w2) ++ hdr_close a ++ r2 = Y ++ rest j') by (rewrite <- RY, <- !app_assoc; reflexivity).
  apply (app_same_length _ _ _ _ RY' L).
Qed.
