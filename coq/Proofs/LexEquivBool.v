(* Proofs/LexEquivBool.v — C01 layer L1, boolean = true / false: the committed failure of
   `true_` / `false_` (numbers.rs: (peek(LIT[0]), cut_err(LIT))) occurs only where the literal is
   not there.  Acceptance and value are in Proofs/LexEquivTrivia.v (boolean_complete / _sound). *)
From TV Require Import Base.Prelude Base.Winnow Gen.Consts Spec.Abnf Model.Numbers.
From TV Require Import Proofs.LexEquivBase Proofs.LexEquivTrivia.

Lemma true_cut_only i e j : true_ i = Cut e j -> forall r, rest i <> t_true ++ r.
Proof. apply bool_lit_cut. Qed.

Lemma false_cut_only i e j : false_ i = Cut e j -> forall r, rest i <> t_false ++ r.
Proof. apply bool_lit_cut. Qed.

(* true_ / false_ never fail softly once the first letter matches, and fail softly otherwise *)
Lemma true_fails i : stops (byte_eqb x74) (rest i) -> fails true_ i.
Proof.
  intro H. unfold true_, bool_lit, TRUE. apply bind_fails, peek_fails, byte_fails. exact H.
Qed.

Lemma false_fails i : stops (byte_eqb x66) (rest i) -> fails false_ i.
Proof.
  intro H. unfold false_, bool_lit, FALSE. apply bind_fails, peek_fails, byte_fails. exact H.
Qed.
