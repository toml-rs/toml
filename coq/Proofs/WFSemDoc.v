(* Proofs/WFSemDoc.v — WF backbone, specification side, part 2: the statements a printer emits for a tree, section
   after section in pre-order, define — by the rules of Spec/Defs.v, the strict ones — exactly that tree, with, in
   every table, what its key/value lines define (values and tables made of dotted keys, in order) before its
   sub-tables and arrays of tables (in order).

   The tree as the printer sees it (`snode`): values; tables made of dotted keys (SD: they live in the lines of the
   enclosing section, but may hold header tables of their own); header tables (ST hid: `hid` = no `[header]` is
   written for it, it is only mentioned by what is below it); arrays of tables.
   Generalises Proofs/BuiltRTSpecFold.v (C06: no dotted keys, non-strict rules). *)
From TV Require Import Base.Prelude Spec.Defs.
From TV Require Import Proofs.DefsEquivSpec Proofs.WFSem.
Require Import Lia.

Section Doc.
  Variable V : Type.
  Local Notation T := (stree V).
  Local Notation stm := (stmt V).

  (* ---- framing: statements under a prefix act on the table the prefix addresses (any strictness) ------------------ *)
  Definition shift (P : list bytes) (s : stm) : stm :=
    match s with
    | SHeader p => SHeader (P ++ p)
    | SArrHeader p => SArrHeader (P ++ p)
    | SKeyVal p v => SKeyVal p v
    end.
  Definition hdr_nonempty (s : stm) : Prop :=
    match s with SHeader p | SArrHeader p => p <> [] | SKeyVal _ _ => True end.

  Lemma rbind_ok_id {A} (r : res A) : rbind r (fun a => ROk a) = r.
  Proof. destruct r; reflexivity. Qed.

  Lemma at_path_x_out {X Y} (h : X -> Y) p (F : T -> res (T * X)) t :
    at_path_x p (fun c => rbind (F c) (fun cx => ROk (fst cx, h (snd cx)))) t
    = rbind (at_path_x p F t) (fun cx => ROk (fst cx, h (snd cx))).
  Proof.
    revert t. induction p as [|k p IH]; intro t; cbn [at_path_x]; [reflexivity|].
    destruct (sget t k) as [[v|kd c|es]|]; [reflexivity| | |].
    - rewrite IH. destruct (at_path_x p F c) as [[c1 x]| |]; reflexivity.
    - destruct (rev es) as [|e before]; [reflexivity|]. rewrite IH. destruct (at_path_x p F e) as [[c1 x]| |]; reflexivity.
    - rewrite IH. destruct (at_path_x p F []) as [[c1 x]| |]; reflexivity.
  Qed.

  Lemma at_path_prefix {X} (P q : list bytes) (f : T -> res T) (x : X) t :
    rbind (at_path (P ++ q) f t) (fun t' => ROk (t', x))
    = at_path_x P (fun c => rbind (at_path q f c) (fun t' => ROk (t', x))) t.
  Proof.
    rewrite at_path_lift, at_path_x_app.
    transitivity (rbind (at_path_x P (at_path_x q (lift f)) t) (fun cx => ROk (fst cx, x))).
    { destruct (at_path_x P (at_path_x q (lift f)) t) as [[c1 u]| |]; reflexivity. }
    pose proof (at_path_x_out (fun _ : unit => x) P (at_path_x q (lift f)) t) as E. cbv beta in E. rewrite <- E. clear E.
    apply (at_path_x_ext (fun _ => True)); [apply walk_closed_true|exact I|]. intros c _.
    rewrite at_path_lift. destruct (at_path_x q (lift f) c) as [[c1 u]| |]; reflexivity.
  Qed.

  (* ... and the current path a statement leaves: under the prefix too *)
  Lemma at_path_prefix_cur (P q x : list bytes) (f : T -> res T) t :
    rbind (at_path (P ++ q) f t) (fun t' => ROk (t', P ++ x))
    = rbind (at_path_x P (fun c => rbind (at_path q f c) (fun t' => ROk (t', x))) t) (fun Tx => ROk (fst Tx, P ++ snd Tx)).
  Proof. rewrite <- at_path_prefix. destruct (at_path (P ++ q) f t); reflexivity. Qed.

  Variable strict : bool.

  Lemma step_frame P s t cur : hdr_nonempty s ->
    spec_step strict (t, P ++ cur) (shift P s)
    = rbind (at_path_x P (fun c => spec_step strict (c, cur) s) t) (fun Tx => ROk (fst Tx, P ++ snd Tx)).
  Proof.
    intro Hs. destruct s as [p|p|p v]; cbn [shift spec_step hdr_nonempty] in *.
    - destruct (exists_last Hs) as (pre & k & ->). rewrite app_assoc, !unsnoc_app, <- app_assoc. apply at_path_prefix_cur.
    - destruct (exists_last Hs) as (pre & k & ->). rewrite app_assoc, !unsnoc_app, <- app_assoc. apply at_path_prefix_cur.
    - apply at_path_prefix_cur.
  Qed.

  Lemma at_path_x_bind_ok {X Y} p (F : T -> res (T * X)) (G : X -> T -> res (T * Y)) t r :
    at_path_x p (fun c => rbind (F c) (fun tx => G (snd tx) (fst tx))) t = ROk r ->
    exists t1 x, at_path_x p F t = ROk (t1, x).
  Proof.
    revert t r. induction p as [|k p IH]; intros t r H; cbn [at_path_x] in *.
    - destruct (F t) as [[t1 x]| |]; [eauto|discriminate|discriminate].
    - destruct (sget t k) as [[v|kd c|es]|]; [discriminate| | |].
      + destruct (at_path_x p (fun c0 => rbind (F c0) (fun tx => G (snd tx) (fst tx))) c) as [r1| |] eqn:E; try discriminate.
        destruct (IH _ _ E) as (t1 & x & E1). rewrite E1. cbn [rbind fst snd]. eauto.
      + destruct (rev es) as [|e before]; [discriminate|].
        destruct (at_path_x p (fun c0 => rbind (F c0) (fun tx => G (snd tx) (fst tx))) e) as [r1| |] eqn:E; try discriminate.
        destruct (IH _ _ E) as (t1 & x & E1). rewrite E1. cbn [rbind fst snd]. eauto.
      + destruct (at_path_x p (fun c0 => rbind (F c0) (fun tx => G (snd tx) (fst tx))) []) as [r1| |] eqn:E; try discriminate.
        destruct (IH _ _ E) as (t1 & x & E1). rewrite E1. cbn [rbind fst snd]. eauto.
  Qed.

  Lemma fold_frame P l : Forall hdr_nonempty l -> l <> [] -> forall t cur t' cur',
    at_path_x P (fun c => spec_fold strict (c, cur) l) t = ROk (t', cur') ->
    spec_fold strict (t, P ++ cur) (map (shift P) l) = ROk (t', P ++ cur').
  Proof.
    induction 1 as [|s l Hs Hl IH]; intros Hne t cur t' cur' H; [contradiction|].
    cbn [map spec_fold] in *. rewrite (step_frame P s t cur Hs).
    destruct l as [|s2 l2].
    - cbn [map spec_fold] in *.
      assert (E : at_path_x P (fun c => spec_step strict (c, cur) s) t = ROk (t', cur')).
      { rewrite <- H. apply (at_path_x_ext (fun _ => True)); [apply walk_closed_true|exact I|]. intros c _.
        symmetry. apply rbind_ok_id. }
      rewrite E. reflexivity.
    - set (l' := s2 :: l2) in *.
      assert (H' : at_path_x P (fun c => rbind (spec_step strict (c, cur) s) (fun tx => spec_fold strict (fst tx, snd tx) l')) t
                   = ROk (t', cur')).
      { rewrite <- H. apply (at_path_x_ext (fun _ => True)); [apply walk_closed_true|exact I|]. intros c _.
        destruct (spec_step strict (c, cur) s) as [[a b]| |]; reflexivity. }
      destruct (at_path_x_bind_ok P (fun c => spec_step strict (c, cur) s) (fun x c => spec_fold strict (c, x) l') t _ H')
        as (t1 & cur1 & E1).
      rewrite E1. cbn [rbind fst snd].
      apply IH; [unfold l'; discriminate|].
      rewrite (at_path_x_comp P (fun c => spec_step strict (c, cur) s) (fun x c => spec_fold strict (c, x) l') t t1 cur1 E1).
      exact H'.
  Qed.

  Lemma spec_fold_app (a b : list stm) S :
    spec_fold strict S (a ++ b) = rbind (spec_fold strict S a) (fun S1 => spec_fold strict S1 b).
  Proof.
    revert S. induction a as [|s a IH]; intro S; [reflexivity|]. cbn [app spec_fold].
    destruct (spec_step strict S s); cbn [rbind]; [apply IH|reflexivity|reflexivity].
  Qed.
End Doc.
Arguments shift {V}. Arguments hdr_nonempty {V}.

(* ---- the tree as the printer sees it ----------------------------------------------------------------------------------- *)
Section Tree.
  Variable V : Type.
  Local Notation T := (stree V).
  Local Notation stm := (stmt V).

  Inductive snode : Type :=
  | SV (v : V)
  | SD (l : list (bytes * snode))
  | ST (hid : bool) (l : list (bytes * snode))
  | SA (ls : list (list (bytes * snode))).
  Definition sbody := list (bytes * snode).

  (* the dotted forest of a body: what its key/value lines define *)
  Fixpoint dpart_node (n : snode) : option (dnode V) :=
    match n with
    | SV v => Some (DV v)
    | SD l => Some (DT (flat_map (fun kn => match dpart_node (snd kn) with Some d => [(fst kn, d)] | None => [] end) l))
    | _ => None
    end.
  Definition dpart (l : sbody) : list (bytes * dnode V) :=
    flat_map (fun kn => match dpart_node (snd kn) with Some d => [(fst kn, d)] | None => [] end) l.
  Definition line_stmts (l : sbody) : list stm := map (fun pv => SKeyVal (fst pv) (snd pv)) (dflat V (dpart l)).

  (* the sections below a body at header path P, and the statements of a body *)
  Fixpoint node_secs (P : list bytes) (n : snode) {struct n} : list stm :=
    match n with
    | SV _ => []
    | SD l => flat_map (fun kn => node_secs (P ++ [fst kn]) (snd kn)) l
    | ST hid l =>
      (if hid then [] else [SHeader P])
      ++ map (fun pv => SKeyVal (fst pv) (snd pv))
             (dflat V (flat_map (fun kn => match dpart_node (snd kn) with Some d => [(fst kn, d)] | None => [] end) l))
      ++ flat_map (fun kn => node_secs (P ++ [fst kn]) (snd kn)) l
    | SA ls =>
      flat_map (fun l =>
                  SArrHeader P
                  :: map (fun pv => SKeyVal (fst pv) (snd pv))
                         (dflat V (flat_map (fun kn => match dpart_node (snd kn) with Some d => [(fst kn, d)] | None => [] end) l))
                  ++ flat_map (fun kn => node_secs (P ++ [fst kn]) (snd kn)) l) ls
    end.
  Definition secs (P : list bytes) (l : sbody) : list stm := flat_map (fun kn => node_secs (P ++ [fst kn]) (snd kn)) l.
  Definition body_stmts (P : list bytes) (l : sbody) : list stm := line_stmts l ++ secs P l.

  Lemma node_secs_SD P l : node_secs P (SD l) = secs P l. Proof. reflexivity. Qed.
  Lemma node_secs_ST P hid l : node_secs P (ST hid l) = (if hid then [] else [SHeader P]) ++ body_stmts P l. Proof. reflexivity. Qed.
  Lemma node_secs_SA P ls : node_secs P (SA ls) = flat_map (fun l => SArrHeader P :: body_stmts P l) ls. Proof. reflexivity. Qed.

  (* the tree the statements define *)
  Fixpoint node_res (n : snode) {struct n} : list (node V) :=
    match n with
    | SV v => [NVal v]
    | SD l =>
      [NTab KDotted
         (flat_map (fun kn => match snd kn with SV _ | SD _ => map (fun r => (fst kn, r)) (node_res (snd kn)) | _ => [] end) l
          ++ flat_map (fun kn => match snd kn with ST _ _ | SA _ => map (fun r => (fst kn, r)) (node_res (snd kn)) | _ => [] end) l)]
    | ST hid l =>
      [NTab (if hid then KSuper else KHeader)
         (flat_map (fun kn => match snd kn with SV _ | SD _ => map (fun r => (fst kn, r)) (node_res (snd kn)) | _ => [] end) l
          ++ flat_map (fun kn => match snd kn with ST _ _ | SA _ => map (fun r => (fst kn, r)) (node_res (snd kn)) | _ => [] end) l)]
    | SA [] => []
    | SA ls =>
      [NAot (map (fun l =>
                    flat_map (fun kn => match snd kn with SV _ | SD _ => map (fun r => (fst kn, r)) (node_res (snd kn)) | _ => [] end) l
                    ++ flat_map (fun kn => match snd kn with ST _ _ | SA _ => map (fun r => (fst kn, r)) (node_res (snd kn)) | _ => [] end) l) ls)]
    end.
  Definition is_line (n : snode) : bool := match n with SV _ | SD _ => true | _ => false end.
  Definition lres (l : sbody) : T :=
    flat_map (fun kn => match snd kn with SV _ | SD _ => map (fun r => (fst kn, r)) (node_res (snd kn)) | _ => [] end) l.
  Definition sres (l : sbody) : T :=
    flat_map (fun kn => match snd kn with ST _ _ | SA _ => map (fun r => (fst kn, r)) (node_res (snd kn)) | _ => [] end) l.
  Definition bres (l : sbody) : T := lres l ++ sres l.
  Lemma node_res_SD l : node_res (SD l) = [NTab KDotted (bres l)]. Proof. reflexivity. Qed.
  Lemma node_res_ST hid l : node_res (ST hid l) = [NTab (if hid then KSuper else KHeader) (bres l)]. Proof. reflexivity. Qed.
  Lemma node_res_SA ls : node_res (SA ls) = match ls with [] => [] | _ => [NAot (map bres ls)] end.
  Proof. destruct ls; reflexivity. Qed.
End Tree.
Arguments SV {V}. Arguments SD {V}. Arguments ST {V}. Arguments SA {V}.

(* ---- well-formed trees -------------------------------------------------------------------------------------------------- *)
Section Claim.
  Variable V : Type.
  Local Notation T := (stree V).
  Local Notation stm := (stmt V).
  Local Notation snode := (snode V).
  Local Notation sbody := (sbody V).

  Inductive swf : snode -> Prop :=
  | swf_v v : swf (SV v)
  | swf_d l : NoDup (map fst l) -> Forall swf (map snd l) -> dpart V l <> [] -> swf (SD l)
  | swf_t hid l : NoDup (map fst l) -> Forall swf (map snd l) ->
                  (hid = true -> dpart V l = [] /\ secs V [] l <> []) -> swf (ST hid l)
  | swf_a ls : Forall (fun l => NoDup (map fst l) /\ Forall swf (map snd l)) ls -> swf (SA ls).
  Definition swf_body (l : sbody) : Prop := NoDup (map fst l) /\ Forall swf (map snd l).

  Lemma swf_strong (P : snode -> Prop) :
    (forall v, P (SV v)) ->
    (forall l, NoDup (map fst l) -> Forall swf (map snd l) -> Forall P (map snd l) -> dpart V l <> [] -> P (SD l)) ->
    (forall hid l, NoDup (map fst l) -> Forall swf (map snd l) -> Forall P (map snd l) ->
                   (hid = true -> dpart V l = [] /\ secs V [] l <> []) -> P (ST hid l)) ->
    (forall ls, Forall (fun l => NoDup (map fst l) /\ Forall swf (map snd l) /\ Forall P (map snd l)) ls -> P (SA ls)) ->
    forall n, swf n -> P n.
  Proof.
    intros H1 H2 H3 H4. fix IH 2. intros n Hn. destruct Hn as [v | l Hnd Hl Hne | hid l Hnd Hl Hh | ls Hls].
    - apply H1.
    - apply H2; auto. induction Hl; constructor; [apply IH; assumption|assumption].
    - apply H3; auto. induction Hl; constructor; [apply IH; assumption|assumption].
    - apply H4. induction Hls as [|l ls [Hnd Hl] _ IHls]; constructor; [|exact IHls].
      split; [exact Hnd|split; [exact Hl|]]. induction Hl; constructor; [apply IH; assumption|assumption].
  Qed.

  (* ---- shifting ------------------------------------------------------------------------------------------------------- *)
  Lemma map_shift_lines P (ps : list (list bytes * V)) :
    map (shift P) (map (fun pv => SKeyVal (fst pv) (snd pv)) ps) = map (fun pv => SKeyVal (fst pv) (snd pv)) ps.
  Proof. rewrite map_map. reflexivity. Qed.

  Lemma node_secs_shift : forall n P Q, node_secs V (P ++ Q) n = map (shift P) (node_secs V Q n).
  Proof.
    fix IH 1. intros [v|l|hid l|ls] P Q.
    - reflexivity.
    - cbn [node_secs]. induction l as [|[k n] l IHl]; [reflexivity|]. cbn [flat_map fst snd]. rewrite map_app, <- IHl. f_equal.
      rewrite <- app_assoc. apply IH.
    - cbn [node_secs]. rewrite !map_app, map_shift_lines. f_equal; [destruct hid; reflexivity|]. f_equal.
      induction l as [|[k n] l IHl]; [reflexivity|]. cbn [flat_map fst snd]. rewrite map_app, <- IHl. f_equal.
      rewrite <- app_assoc. apply IH.
    - cbn [node_secs]. induction ls as [|l ls IHls]; [reflexivity|]. cbn [flat_map]. rewrite map_app, <- IHls. f_equal.
      cbn [map shift]. f_equal. rewrite map_app, map_shift_lines. f_equal.
      induction l as [|[k n] l IHl]; [reflexivity|]. cbn [flat_map fst snd]. rewrite map_app, <- IHl. f_equal.
      rewrite <- app_assoc. apply IH.
  Qed.
  Lemma secs_shift P Q l : secs V (P ++ Q) l = map (shift P) (secs V Q l).
  Proof.
    unfold secs. induction l as [|[k n] l IH]; [reflexivity|]. cbn [flat_map fst snd]. rewrite map_app, <- IH. f_equal.
    rewrite <- app_assoc. apply node_secs_shift.
  Qed.
  Lemma body_stmts_shift P Q l : body_stmts V (P ++ Q) l = map (shift P) (body_stmts V Q l).
  Proof. unfold body_stmts, line_stmts. rewrite map_app, map_shift_lines, secs_shift. reflexivity. Qed.
  Lemma secs_k k l : secs V [k] l = map (shift [k]) (secs V [] l).
  Proof. apply (secs_shift [k] []). Qed.
  Lemma body_stmts_k k l : body_stmts V [k] l = map (shift [k]) (body_stmts V [] l).
  Proof. apply (body_stmts_shift [k] []). Qed.

  (* ---- shape of the statement lists ------------------------------------------------------------------------------------ *)
  Lemma lines_hdr (ps : list (list bytes * V)) : Forall hdr_nonempty (map (fun pv => SKeyVal (fst pv) (snd pv)) ps).
  Proof. induction ps; constructor; [exact I|assumption]. Qed.
  Lemma shift_hdr P (L : list stm) : P <> [] -> Forall hdr_nonempty (map (shift P) L).
  Proof. intro HP. apply Forall_map, Forall_forall. intros [p|p|p v] _; cbn [shift hdr_nonempty]; [destruct P; [congruence|discriminate]..|exact I]. Qed.
  Lemma node_secs_hdr n P : P <> [] -> Forall hdr_nonempty (node_secs V P n).
  Proof. intro HP. rewrite <- (app_nil_r P), node_secs_shift. apply shift_hdr, HP. Qed.
  Lemma secs_hdr P l : Forall hdr_nonempty (secs V P l).
  Proof.
    unfold secs. induction l as [|[k n] l IH]; [constructor|]. cbn [flat_map fst snd]. apply Forall_app. split; [|exact IH].
    apply node_secs_hdr. destruct P; discriminate.
  Qed.
  Lemma body_stmts_hdr P l : Forall hdr_nonempty (body_stmts V P l).
  Proof. unfold body_stmts. apply Forall_app. split; [apply lines_hdr|apply secs_hdr]. Qed.

  (* a list of sections begins with a header, after which the current path no longer matters *)
  Definition starts_hdr (l : list stm) : Prop :=
    match l with [] => True | SHeader _ :: _ => True | SArrHeader _ :: _ => True | SKeyVal _ _ :: _ => False end.
  Lemma starts_hdr_app a b : starts_hdr a -> starts_hdr b -> starts_hdr (a ++ b).
  Proof. destruct a as [|[p|p|p v] a]; cbn; auto. Qed.
  Lemma starts_hdr_flat {A} (f : A -> list stm) l : Forall (fun x => starts_hdr (f x)) l -> starts_hdr (flat_map f l).
  Proof. induction 1; cbn [flat_map]; [exact I|]. apply starts_hdr_app; assumption. Qed.
  Lemma secs_starts_of P l : Forall (fun n => forall P, starts_hdr (node_secs V P n)) (map snd l) -> starts_hdr (secs V P l).
  Proof.
    intro H. unfold secs. apply starts_hdr_flat. rewrite Forall_map in H. eapply Forall_impl; [|exact H]. intros [k n] Hn. apply Hn.
  Qed.
  Lemma node_secs_starts : forall n, swf n -> forall P, starts_hdr (node_secs V P n).
  Proof.
    apply (swf_strong (fun n => forall P, starts_hdr (node_secs V P n))).
    - intros v P. exact I.
    - intros l _ _ IH _ P. rewrite node_secs_SD. apply secs_starts_of, IH.
    - intros hid l _ _ IH Hh P. rewrite node_secs_ST. destruct hid; [|exact I]. cbn [app].
      destruct (Hh eq_refl) as [Hd _]. unfold body_stmts, line_stmts. rewrite Hd. cbn [dflat flat_map map app].
      apply secs_starts_of, IH.
    - intros ls _ P. rewrite node_secs_SA. destruct ls; exact I.
  Qed.
  Lemma secs_starts P l : Forall swf (map snd l) -> starts_hdr (secs V P l).
  Proof. intro H. apply secs_starts_of. eapply Forall_impl; [|exact H]. intros n Hn. apply node_secs_starts, Hn. Qed.
  Lemma starts_hdr_cur strict (l : list stm) S c1 c2 : starts_hdr l -> l <> [] ->
    spec_fold strict (S, c1) l = spec_fold strict (S, c2) l.
  Proof. destruct l as [|[p|p|p v] l]; cbn [starts_hdr]; intros H Hne; try congruence; try contradiction; reflexivity. Qed.
End Claim.

(* ---- the statements of a tree define the tree ----------------------------------------------------------------------------- *)
Section Fold.
  Variable V : Type.
  Local Notation T := (stree V).
  Local Notation stm := (stmt V).
  Local Notation snode := (snode V).
  Local Notation sbody := (sbody V).

  Definition skel (l : sbody) : T := dres V (dpart V l).

  Definition skel1 (kn : bytes * snode) : T :=
    match dpart_node V (snd kn) with Some d => [(fst kn, dres_node V d)] | None => [] end.
  Definition lres1 (kn : bytes * snode) : T :=
    match snd kn with SV _ | SD _ => map (fun r => (fst kn, r)) (node_res V (snd kn)) | _ => [] end.
  Definition sres1 (kn : bytes * snode) : T :=
    match snd kn with ST _ _ | SA _ => map (fun r => (fst kn, r)) (node_res V (snd kn)) | _ => [] end.
  Lemma skel_flat l : skel l = flat_map skel1 l.
  Proof.
    unfold skel, dpart, dres, skel1. induction l as [|kn l IH]; [reflexivity|]. cbn [flat_map]. rewrite map_app, IH. f_equal.
    destruct (dpart_node V (snd kn)); reflexivity.
  Qed.
  Lemma skel_cons kn l : skel (kn :: l) = skel1 kn ++ skel l.
  Proof. rewrite !skel_flat. reflexivity. Qed.
  Lemma lres_app a b : lres V (a ++ b) = lres V a ++ lres V b.
  Proof. unfold lres. apply flat_map_app. Qed.
  Lemma sres_app a b : sres V (a ++ b) = sres V a ++ sres V b.
  Proof. unfold sres. apply flat_map_app. Qed.
  Lemma lres_one kn : lres V [kn] = lres1 kn. Proof. unfold lres. cbn [flat_map]. apply app_nil_r. Qed.
  Lemma sres_one kn : sres V [kn] = sres1 kn. Proof. unfold sres. cbn [flat_map]. apply app_nil_r. Qed.

  Lemma keys_flat {B} (f : bytes * snode -> list (bytes * B)) l :
    (forall kn x, In x (map fst (f kn)) -> x = fst kn) -> forall x, In x (map fst (flat_map f l)) -> In x (map fst l).
  Proof.
    intros Hf x. induction l as [|kn l IH]; cbn [flat_map map]; [auto|]. rewrite map_app. intro H. apply in_app_or in H as [H|H].
    - left. symmetry. exact (Hf _ _ H).
    - right. exact (IH H).
  Qed.
  Lemma skel1_keys kn x : In x (map fst (skel1 kn)) -> x = fst kn.
  Proof. unfold skel1. destruct (dpart_node V (snd kn)); cbn; [intros [<-|[]]; reflexivity|contradiction]. Qed.
  Lemma lres1_keys kn x : In x (map fst (lres1 kn)) -> x = fst kn.
  Proof. unfold lres1. destruct (snd kn); try contradiction; rewrite map_map; cbn [fst]; intro H; apply in_map_iff in H as (r & <- & _); reflexivity. Qed.
  Lemma sres1_keys kn x : In x (map fst (sres1 kn)) -> x = fst kn.
  Proof. unfold sres1. destruct (snd kn); try contradiction; rewrite map_map; cbn [fst]; intro H; apply in_map_iff in H as (r & <- & _); reflexivity. Qed.
  Lemma skel_keys l x : In x (map fst (skel l)) -> In x (map fst l).
  Proof. rewrite skel_flat. apply (keys_flat skel1). apply skel1_keys. Qed.
  Lemma lres_keys l x : In x (map fst (lres V l)) -> In x (map fst l).
  Proof. apply (keys_flat lres1). apply lres1_keys. Qed.
  Lemma sres_keys l x : In x (map fst (sres V l)) -> In x (map fst l).
  Proof. apply (keys_flat sres1). apply sres1_keys. Qed.

  Lemma sget_app_l (a b : T) k n : sget a k = Some n -> sget (a ++ b) k = Some n.
  Proof. intro H. rewrite sget_app, H. reflexivity. Qed.

  (* the dotted forest of a well-formed body is well-formed *)
  Lemma dpart_keys l x : In x (map fst (dpart V l)) -> In x (map fst l).
  Proof.
    unfold dpart. apply keys_flat. intros kn y. destruct (dpart_node V (snd kn)); cbn [map fst In]; [intros [<-|[]]; reflexivity|contradiction].
  Qed.
  Lemma dpart_nodup l : NoDup (map fst l) -> NoDup (map fst (dpart V l)).
  Proof.
    unfold dpart. induction l as [|[k n] l IH]; cbn [flat_map map fst snd]; [constructor|]. intro H. inversion H as [|? ? Hk Hl]; subst.
    rewrite map_app. destruct (dpart_node V n); cbn [map fst app]; [|apply IH, Hl]. constructor; [|apply IH, Hl].
    intro Hin. apply Hk. apply (dpart_keys l k Hin).
  Qed.
  Lemma dpart_forall (Q : dnode V -> Prop) l :
    Forall (fun n => forall d, dpart_node V n = Some d -> Q d) (map snd l) -> Forall Q (map snd (dpart V l)).
  Proof.
    unfold dpart. induction l as [|[k n] l IHl]; intro H; [constructor|]. cbn [flat_map map fst snd] in *. inversion H as [|? ? H1 H2]; subst.
    rewrite map_app. apply Forall_app. split; [|apply IHl, H2]. destruct (dpart_node V n) as [d|]; [|constructor].
    constructor; [apply H1; reflexivity|constructor].
  Qed.
  Lemma dpart_node_wf : forall n, swf V n -> forall d, dpart_node V n = Some d -> dwf_node V d.
  Proof.
    apply (swf_strong V (fun n => forall d, dpart_node V n = Some d -> dwf_node V d)).
    - intros v d E. inversion E; subst. constructor.
    - intros l Hnd _ IH Hne d E. cbn [dpart_node] in E. inversion E; subst. fold (dpart V l).
      constructor; [exact Hne|apply dpart_nodup, Hnd|apply dpart_forall, IH].
    - intros hid l _ _ _ _ d E. discriminate.
    - intros ls _ d E. discriminate.
  Qed.
  Lemma dpart_wf l : swf_body V l -> dwf V (dpart V l).
  Proof.
    intros [Hnd Hl]. split; [apply dpart_nodup, Hnd|]. apply dpart_forall. eapply Forall_impl; [|exact Hl].
    intros n Hn. apply dpart_node_wf, Hn.
  Qed.

  (* the key/value lines of a section, into the empty table its header just made *)
  Lemma lines_fold (ps : list (list bytes * V)) (t : T) :
    spec_fold true (t, []) (map (fun pv => SKeyVal (fst pv) (snd pv)) ps) = rbind (inline_fold t ps) (fun t' => ROk (t', [])).
  Proof.
    revert t. induction ps as [|[p v] ps IH]; intro t; [reflexivity|]. cbn [map spec_fold spec_step fst snd at_path inline_fold].
    destruct (insert_kv true p v t); cbn [rbind]; auto.
  Qed.
  Lemma line_stmts_fold l : swf_body V l -> spec_fold true (([] : T), []) (line_stmts V l) = ROk ((skel l : T), []).
  Proof. intro H. unfold line_stmts. rewrite lines_fold, (dfold V _ [] (dpart_wf l H)); [reflexivity|]. intros x _ []. Qed.

  (* ---- claims --------------------------------------------------------------------------------------------------------------- *)
  (* The sections of the entry k -> n, run on a table that holds the entry's skeleton (for a table made of dotted keys: what
     its lines made) and nothing else under k: the line part of the entry is completed in place, its section part appended. *)
  Definition sec_claim (n : snode) : Prop :=
    forall (k : bytes) (A B : T) (cur : list bytes), ~ In k (map fst A) -> ~ In k (map fst B) ->
      exists cur', spec_fold true ((A ++ skel1 (k, n) ++ B : T), cur) (node_secs V [k] n)
                   = ROk ((A ++ lres1 (k, n) ++ B ++ sres1 (k, n) : T), cur').
  (* for a header table or an array of tables: the key is new *)
  Definition new_claim (n : snode) : Prop :=
    forall (k : bytes) (S : T) (cur : list bytes), sget S k = None ->
      exists cur', spec_fold true (S, cur) (node_secs V [k] n) = ROk (S ++ map (fun r => (k, r)) (node_res V n), cur').
  Definition secs_claim (l : sbody) : Prop :=
    forall cur, exists cur', spec_fold true ((skel l : T), cur) (secs V [] l) = ROk ((bres V l : T), cur').
  Definition body_claim (l : sbody) : Prop :=
    exists cur', spec_fold true (([] : T), []) (body_stmts V [] l) = ROk ((bres V l : T), cur').

  Lemma sec_claim_new n : is_line V n = false -> new_claim n -> sec_claim n.
  Proof.
    intros Hn H k A B cur HA HB.
    assert (G : sget (A ++ B) k = None).
    { apply sget_none_notin. rewrite map_app. intro X. apply in_app_or in X as [X|X]; contradiction. }
    destruct (H k (A ++ B) cur G) as (c' & E). exists c'.
    destruct n; try discriminate; unfold skel1, lres1, sres1; cbn [snd fst dpart_node app]; rewrite app_assoc; exact E.
  Qed.

  Lemma secs_loop : forall l2 l1, NoDup (map fst (l1 ++ l2)) -> Forall sec_claim (map snd l2) ->
    forall cur, exists cur',
      spec_fold true ((lres V l1 ++ skel l2 ++ sres V l1 : T), cur) (secs V [] l2) = ROk ((lres V (l1 ++ l2) ++ sres V (l1 ++ l2) : T), cur').
  Proof.
    induction l2 as [|[k n] l2 IH]; intros l1 Hnd Hcl cur.
    - exists cur. unfold skel, dpart, dres. cbn [flat_map map app spec_fold secs]. rewrite app_nil_r. reflexivity.
    - cbn [map snd] in Hcl. inversion Hcl as [|? ? Hn Hcl']; subst.
      replace (l1 ++ (k, n) :: l2) with ((l1 ++ [(k, n)]) ++ l2) in * by (rewrite <- app_assoc; reflexivity).
      pose proof Hnd as Hk. rewrite <- app_assoc, map_app in Hk. apply NoDup_remove_2 in Hk.
      destruct (Hn k (lres V l1) (skel l2 ++ sres V l1) cur) as (c1 & E1).
      { intro H. apply Hk, in_or_app. left. exact (lres_keys _ _ H). }
      { rewrite map_app. intro H. apply Hk, in_or_app. apply in_app_or in H as [H|H]; [right; exact (skel_keys _ _ H)|left; exact (sres_keys _ _ H)]. }
      destruct (IH (l1 ++ [(k, n)]) Hnd Hcl' c1) as (c2 & E2). exists c2.
      unfold secs. cbn [flat_map fst snd app]. fold (secs V [] l2). rewrite spec_fold_app, skel_cons, <- app_assoc, E1. cbn [rbind].
      rewrite <- E2, lres_app, sres_app, lres_one, sres_one, <- !app_assoc. reflexivity.
  Qed.

  Lemma secs_claim_of l : NoDup (map fst l) -> Forall sec_claim (map snd l) -> secs_claim l.
  Proof.
    intros Hnd Hcl cur. destruct (secs_loop l [] Hnd Hcl cur) as (c' & E). exists c'.
    change (lres V []) with (@nil (bytes * node V)) in E. change (sres V []) with (@nil (bytes * node V)) in E.
    cbn [app] in E. rewrite app_nil_r in E. exact E.
  Qed.
  Lemma body_claim_of l : swf_body V l -> Forall sec_claim (map snd l) -> body_claim l.
  Proof.
    intros Hw Hcl. unfold body_claim, body_stmts. rewrite spec_fold_app, (line_stmts_fold l Hw). cbn [rbind].
    apply (secs_claim_of l (proj1 Hw) Hcl).
  Qed.

  (* ---- the sections of one node ---------------------------------------------------------------------------------------------- *)
  Lemma frame_k k (L : list stm) (S : T) t' c' : Forall hdr_nonempty L -> L <> [] ->
    at_path_x [k] (fun c => spec_fold true (c, []) L) S = ROk (t', c') ->
    spec_fold true (S, [k]) (map (shift [k]) L) = ROk (t', k :: c').
  Proof. intros H1 H2 H3. exact (fold_frame V true [k] L H1 H2 S [] t' c' H3). Qed.

  Lemma map_shift_starts P (L : list stm) : starts_hdr V L -> starts_hdr V (map (shift P) L).
  Proof. destruct L as [|[p|p|p v] L]; cbn; auto. Qed.

  (* Statements L that make r of c0, run below the key k of a table where the walk to k finds c0 and puts back R of what
     it is given; the current path is k, or L begins with a header. *)
  Lemma run_under k (L : list stm) (S : T) (R : T -> T) c0 r c' cur :
    Forall hdr_nonempty L -> cur = [k] \/ starts_hdr V L ->
    (forall F : T -> res (T * list bytes), at_path_x [k] F S = rbind (F c0) (fun cx => ROk (R (fst cx), snd cx))) ->
    (L = [] -> R c0 = S) ->
    spec_fold true (c0, []) L = ROk (r, c') ->
    exists cur', spec_fold true (S, cur) (map (shift [k]) L) = ROk (R r, cur').
  Proof.
    intros HL Hcur Hat Hnil E. destruct L as [|s0 L0] eqn:EL.
    - injection E as <- _. exists cur. rewrite (Hnil eq_refl). reflexivity.
    - rewrite <- EL in *. assert (Hne : L <> []) by (rewrite EL; discriminate). exists (k :: c').
      replace (spec_fold true (S, cur) (map (shift [k]) L)) with (spec_fold true (S, [k]) (map (shift [k]) L)).
      + apply frame_k; [exact HL|exact Hne|]. rewrite Hat, E. reflexivity.
      + destruct Hcur as [->|Hst]; [reflexivity|].
        apply starts_hdr_cur; [apply map_shift_starts, Hst|intro H; apply map_eq_nil in H; exact (Hne H)].
  Qed.

  Lemma sec_SV v : sec_claim (SV v).
  Proof. intros k A B cur _ _. exists cur. unfold skel1, lres1, sres1. cbn [snd fst dpart_node dres_node node_res map node_secs spec_fold]. rewrite app_nil_r. reflexivity. Qed.

  Lemma sec_SD l : swf_body V l -> secs_claim l -> sec_claim (SD l).
  Proof.
    intros [Hnd Hl] Hc k A B cur HA _. destruct (Hc []) as (c' & E). rewrite node_secs_SD, secs_k.
    change (skel1 (k, SD l)) with [(k, NTab KDotted (skel l))]. change (lres1 (k, SD l)) with [(k, NTab KDotted (bres V l))].
    change (sres1 (k, SD l)) with (@nil (bytes * node V)). rewrite app_nil_r. cbn [app].
    rewrite <- (sset_mid A B k (NTab KDotted (skel l)) (NTab KDotted (bres V l)) HA).
    pose proof (sget_mid A B k (NTab KDotted (skel l)) HA) as G. set (S := A ++ (k, NTab KDotted (skel l)) :: B) in *.
    apply (run_under k (secs V [] l) S (fun c => sset S k (NTab KDotted c)) (skel l) _ c' cur (secs_hdr V [] l));
      [right; apply secs_starts, Hl| | |exact E].
    - intro F. cbn [at_path_x]. rewrite G. reflexivity.
    - intros _. apply sset_same, G.
  Qed.

  Lemma sec_ST hid l : swf_body V l -> (hid = true -> dpart V l = [] /\ secs V [] l <> []) -> body_claim l -> new_claim (ST hid l).
  Proof.
    intros [Hnd Hl] Hh (c' & E) k S cur G. rewrite node_secs_ST, node_res_ST, body_stmts_k. destruct hid.
    - (* no header: the table is made a super-table by the first header below it *)
      destruct (Hh eq_refl) as [Hd Hne]. cbn [app].
      assert (EB : body_stmts V [] l = secs V [] l) by (unfold body_stmts, line_stmts; rewrite Hd; reflexivity).
      rewrite EB in *.
      apply (run_under k _ S (fun c => spush S k (NTab KSuper c)) [] _ c' cur (secs_hdr V [] l)); [right; apply secs_starts, Hl| |contradiction|exact E].
      intro F. cbn [at_path_x]. rewrite G. reflexivity.
    - cbn [app spec_fold spec_step]. change (unsnoc [k]) with (Some (@nil bytes, k)). cbn [at_path]. unfold def_table. rewrite G. cbn [rbind].
      apply (run_under k _ _ (fun c => spush S k (NTab KHeader c)) [] _ c' [k] (body_stmts_hdr V [] l)); [left; reflexivity| |reflexivity|exact E].
      intro F. cbn [at_path_x]. rewrite (sget_spush_same S k _ G). apply rbind_ext. intros [c1 x]. cbn [fst snd].
      rewrite (sset_spush _ _ _ _ G). reflexivity.
  Qed.

  (* one more element of an array of tables *)
  Lemma aot_elem k l : body_claim l -> forall (S : T) es cur, sget S k = Some (NAot es) ->
    exists cur', spec_fold true (S, cur) (SArrHeader [k] :: body_stmts V [k] l) = ROk (sset S k (NAot (es ++ [bres V l])), cur').
  Proof.
    intros (c' & E) S es cur G. rewrite body_stmts_k. cbn [spec_fold spec_step]. change (unsnoc [k]) with (Some (@nil bytes, k)).
    cbn [at_path]. unfold def_elem. rewrite G. cbn [rbind].
    apply (run_under k _ _ (fun c => sset S k (NAot (es ++ [c]))) [] _ c' [k] (body_stmts_hdr V [] l)); [left; reflexivity| |reflexivity|exact E].
    intro F. cbn [at_path_x]. rewrite sget_sset_same, G, rev_app_distr. cbn [rev app]. rewrite rev_involutive.
    apply rbind_ext. intros [c1 x]. cbn [fst snd]. rewrite sset_sset. reflexivity.
  Qed.
  Lemma aot_first k l : body_claim l -> forall (S : T) cur, sget S k = None ->
    exists cur', spec_fold true (S, cur) (SArrHeader [k] :: body_stmts V [k] l) = ROk (spush S k (NAot [bres V l]), cur').
  Proof.
    intros (c' & E) S cur G. rewrite body_stmts_k. cbn [spec_fold spec_step]. change (unsnoc [k]) with (Some (@nil bytes, k)).
    cbn [at_path]. unfold def_elem. rewrite G. cbn [rbind].
    apply (run_under k _ _ (fun c => spush S k (NAot [c])) [] _ c' [k] (body_stmts_hdr V [] l)); [left; reflexivity| |reflexivity|exact E].
    intro F. cbn [at_path_x]. rewrite (sget_spush_same S k _ G). cbn [rev app]. apply rbind_ext. intros [c1 x]. cbn [fst snd].
    rewrite (sset_spush _ _ _ _ G). reflexivity.
  Qed.
  Lemma aot_rest k : forall ls, Forall body_claim ls -> forall (S : T) es cur, sget S k = Some (NAot es) ->
    exists cur', spec_fold true (S, cur) (flat_map (fun l => SArrHeader [k] :: body_stmts V [k] l) ls)
                 = ROk (sset S k (NAot (es ++ map (bres V) ls)), cur').
  Proof.
    induction ls as [|l ls IH]; intros Hc S es cur G.
    - exists cur. cbn [flat_map spec_fold map]. rewrite app_nil_r, (sset_same S k _ G). reflexivity.
    - inversion Hc as [|? ? H1 H2]; subst. cbn [flat_map]. rewrite spec_fold_app.
      destruct (aot_elem k l H1 S es cur G) as (c1 & E1). rewrite E1. cbn [rbind].
      destruct (IH H2 (sset S k (NAot (es ++ [bres V l]))) (es ++ [bres V l]) c1) as (c2 & E2); [rewrite sget_sset_same, G; reflexivity|].
      exists c2. rewrite E2, sset_sset. cbn [map]. rewrite <- app_assoc. reflexivity.
  Qed.
  Lemma sec_SA ls : Forall body_claim ls -> new_claim (SA ls).
  Proof.
    intros Hc k S cur G. rewrite node_secs_SA, node_res_SA. destruct ls as [|l ls].
    - exists cur. cbn [flat_map spec_fold map]. rewrite app_nil_r. reflexivity.
    - inversion Hc as [|? ? H1 H2]; subst. cbn [flat_map]. rewrite spec_fold_app.
      destruct (aot_first k l H1 S cur G) as (c1 & E1). rewrite E1. cbn [rbind].
      destruct (aot_rest k ls H2 (spush S k (NAot [bres V l])) [bres V l] c1 (sget_spush_same S k _ G)) as (c2 & E2).
      exists c2. rewrite E2, (sset_spush S k _ _ G). reflexivity.
  Qed.

  Theorem sec_claim_all : forall n, swf V n -> sec_claim n.
  Proof.
    apply (swf_strong V sec_claim).
    - apply sec_SV.
    - intros l Hnd Hl IH _. apply sec_SD; [split; assumption|]. apply secs_claim_of; assumption.
    - intros hid l Hnd Hl IH Hh. apply sec_claim_new; [reflexivity|]. apply sec_ST; [split; assumption|exact Hh|]. apply body_claim_of; [split; assumption|exact IH].
    - intros ls Hls. apply sec_claim_new; [reflexivity|]. apply sec_SA. apply Forall_forall. intros l Hin. rewrite Forall_forall in Hls.
      destruct (Hls l Hin) as (H1 & H2 & H3). apply body_claim_of; [split; assumption|exact H3].
  Qed.

  (* THE statement: the statements of a well-formed body, section after section, define that body *)
  Theorem body_defines l : swf_body V l -> run true (body_stmts V [] l) = Valid (bres V l).
  Proof.
    intro Hw. destruct (body_claim_of l Hw) as (c' & E).
    - apply Forall_forall. intros n Hin. apply sec_claim_all. destruct Hw as [_ Hl]. rewrite Forall_forall in Hl. apply Hl, Hin.
    - unfold run. assert (E' : spec_fold true sstate0 (body_stmts V [] l) = ROk (bres V l, c')) by exact E.
      rewrite E'. reflexivity.
  Qed.
End Fold.
